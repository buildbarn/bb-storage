From BBS Require Import Common.Sx Common.ListX Routing.Names Routing.NamesProofs
  Routing.Trie Routing.TrieProofs Auth.Auth.

Lemma denied_eq v : denied v = true <-> v = 7.
Proof. unfold denied. apply Z.eqb_eq. Qed.

(** The prefix leaf: the trie built by the factory, asked with
    ContainsPrefix, answers exactly "some allowed prefix is a component-wise
    prefix of the name". *)
Lemma gval_build_aux ps : forall t q,
  (0 <=? gval (fold_left (fun t p => set t p 0) ps t) q)
  = existsb (fun p => name_eqb p q) ps || (0 <=? gval t q).
Proof.
  induction ps as [|p ps IH]; intros t q; cbn [fold_left existsb]; [reflexivity|].
  rewrite IH, gval_set.
  destruct (name_eqb p q); cbn [orb].
  - rewrite orb_true_r. reflexivity.
  - reflexivity.
Qed.

Lemma gval_empty q : gval empty_trie q = -1.
Proof. destruct q; reflexivity. Qed.

Lemma gval_build ps q :
  (0 <=? gval (build_trie ps) q) = existsb (fun p => name_eqb p q) ps.
Proof.
  unfold build_trie. rewrite gval_build_aux, gval_empty. cbn. apply orb_false_r.
Qed.

Theorem contains_prefix_build ps n :
  contains_prefix (build_trie ps) n = covered ps n.
Proof.
  rewrite contains_prefix_gval. unfold hasp_f, covered.
  apply eq_iff_eq_true. rewrite !existsb_exists. split.
  - intros (q & Hq & Hv). rewrite gval_build in Hv. apply existsb_exists in Hv.
    destruct Hv as (p & Hp & He). apply name_eqb_eq in He. subst q.
    exists p. split; [exact Hp|]. apply prefixes_In. exact Hq.
  - intros (p & Hp & Hpre). exists p. split; [apply prefixes_In; exact Hpre|].
    rewrite gval_build. apply existsb_exists. exists p. split; [exact Hp|apply name_eqb_refl].
Qed.

Theorem prefix_answer_spec ps n : prefix_answer ps n = prefix_sem ps n.
Proof. unfold prefix_answer, prefix_sem. rewrite contains_prefix_build. reflexivity. Qed.

(** [covered] is what the property text says. *)
Theorem covered_iff ps n :
  covered ps n = true <-> exists p r, In p ps /\ n = p ++ r.
Proof.
  unfold covered. rewrite existsb_exists. split.
  - intros (p & Hp & H). apply is_prefix_iff in H. destruct H as (r & ->). exists p, r. auto.
  - intros (p & r & Hp & ->). exists p. split; [exact Hp|apply is_prefix_app].
Qed.

Section TreeInd.
  Variable P : atree -> Prop.
  Hypothesis Hleaf : forall id tbl, P (Leaf id tbl).
  Hypothesis Hprefix : forall ps, P (Prefix ps).
  Hypothesis Hany : forall ms, Forall P ms -> P (Any ms).
  Fixpoint atree_ind' (t : atree) : P t :=
    match t with
    | Leaf id tbl => Hleaf id tbl
    | Prefix ps => Hprefix ps
    | Any ms =>
        Hany ms ((fix go (l : list atree) : Forall P l :=
                    match l with
                    | [] => Forall_nil P
                    | x :: l' => Forall_cons x (atree_ind' x) (go l')
                    end) ms)
    end.
End TreeInd.

Section WithNames.
Variable nm : nat -> list comp.
Notation authorize := (Auth.authorize nm).
Notation sem := (Auth.sem nm).
Notation authorizing := (Auth.authorizing nm).

Lemma merge_spec (g f : nat -> vd) names :
  merge (map g names) (map f (still_denied names (map g names)))
  = map (fun n => if denied (g n) then f n else g n) names.
Proof.
  induction names as [|n ns IH]; cbn [map still_denied merge]; [reflexivity|].
  destruct (denied (g n)) eqn:Hd; cbn [map merge]; rewrite IH; reflexivity.
Qed.

Lemma still_denied_nil (g : nat -> vd) names :
  still_denied names (map g names) = [] -> forall n, In n names -> denied (g n) = false.
Proof.
  induction names as [|a ns IH]; cbn [map still_denied]; intros H n Hin; [contradiction|].
  destruct (denied (g a)) eqn:Hd; [discriminate|].
  destruct Hin as [->|Hin]; [exact Hd|]. apply IH; assumption.
Qed.

Definition spec_ok (t : atree) : Prop :=
  forall names, fst (authorize t names) = map (sem t) names.

Lemma loop_spec (names : list nat) :
  forall rest, Forall spec_ok rest ->
  forall (g : nat -> vd) log,
    fst ((fix loop (rest : list atree) (errs : list vd) (log : list call)
            {struct rest} : list vd * list call :=
            match rest with
            | [] => (errs, log)
            | m :: rest' =>
                match still_denied names errs with
                | [] => (errs, log)
                | cn =>
                    let '(res, lg) := authorize m cn in
                    loop rest' (merge errs res) (log ++ lg)
                end
            end) rest (map g names) log)
    = map (fun n => if denied (g n)
                    then first_nondenied (map (fun m => sem m n) rest)
                    else g n) names.
Proof.
  induction rest as [|m rest' IH]; intros HF g log.
  - cbn. apply map_ext. intros n. destruct (denied (g n)) eqn:Hd; [|reflexivity].
    apply denied_eq in Hd. congruence.
  - inversion HF as [|m' r' Hm Hrest]; subst.
    destruct (still_denied names (map g names)) as [|c cn] eqn:Hsd.
    + cbn [fst]. apply map_ext_in. intros n Hin.
      rewrite (still_denied_nil g names Hsd n Hin). reflexivity.
    + specialize (Hm (c :: cn)).
      destruct (authorize m (c :: cn)) as [res lg] eqn:Ha. cbn [fst] in Hm. subst res.
      rewrite <- Hsd. rewrite merge_spec.
      rewrite (IH Hrest (fun n => if denied (g n) then sem m n else g n)).
      apply map_ext. intros n. cbn [map first_nondenied].
      destruct (denied (g n)) eqn:Hd.
      * destruct (denied (sem m n)); reflexivity.
      * rewrite Hd. reflexivity.
Qed.

Theorem authorize_spec : forall t, spec_ok t.
Proof.
  induction t as [id tbl|ps|ms HF] using atree_ind'; intros names.
  - reflexivity.
  - cbn [Auth.Auth.authorize fst Auth.sem]. apply map_ext. intros n. apply prefix_answer_spec.
  - destruct ms as [|m0 rest].
    + reflexivity.
    + inversion HF as [|m' r' Hm0 Hrest]; subst.
      cbn [Auth.authorize]. specialize (Hm0 names).
      destruct (authorize m0 names) as [errs0 log0]. cbn [fst] in Hm0. subst errs0.
      rewrite (loop_spec names rest Hrest (sem m0) log0).
      apply map_ext. intros n. cbn [Auth.sem map first_nondenied]. reflexivity.
Qed.

Theorem any_sem_iff ms n v :
  sem (Any ms) n = v <->
  (exists pre m post, ms = pre ++ m :: post /\ Forall (fun m' => sem m' n = 7) pre /\
     sem m n = v /\ denied v = false) \/
  (v = 7 /\ forall m, In m ms -> sem m n = 7).
Proof.
  cbn [Auth.sem]. induction ms as [|a ms IH]; cbn [map first_nondenied].
  - split.
    + intros <-. right. split; [reflexivity|intros m []].
    + intros [(pre & m & post & E & _)|[-> _]]; [destruct pre; discriminate|reflexivity].
  - destruct (denied (sem a n)) eqn:Hd.
    + pose proof (proj1 (denied_eq _) Hd) as Ha. rewrite IH. split.
      * intros [(pre & m & post & -> & Hp & Hm)|[-> H]].
        -- left. exists (a :: pre), m, post. split; [reflexivity|]. split; [constructor; assumption|exact Hm].
        -- right. split; [reflexivity|]. intros m [<-|Hin]; auto.
      * intros [(pre & m & post & E & Hp & Hm & Hv)|[-> H]].
        -- destruct pre as [|a' pre]; cbn in E; injection E as <- ->.
           ++ subst v. rewrite Hd in Hv. discriminate.
           ++ left. exists pre, m, post. inversion Hp; subst. auto.
        -- right. split; [reflexivity|]. intros m Hin. apply H. right; exact Hin.
    + split.
      * intros <-. left. exists [], a, ms. auto.
      * intros [(pre & m & post & E & Hp & Hm & Hv)|[-> H]].
        -- destruct pre as [|a' pre]; cbn in E; injection E as <- ->; [exact Hm|].
           inversion Hp as [|? ? Ha' _]; subst. rewrite Ha' in Hd. discriminate.
        -- rewrite (H a (or_introl eq_refl)) in Hd. discriminate.
Qed.

Theorem any_member_grants pre m post n :
  allowed (sem m n) = true -> Forall (fun m' => sem m' n = 7) pre ->
  sem (Any (pre ++ m :: post)) n = sem m n.
Proof.
  intros Hm Hpre. apply any_sem_iff. left. exists pre, m, post. repeat split; auto.
  unfold allowed, denied in *. apply Z.eqb_eq in Hm. rewrite Hm. reflexivity.
Qed.

Lemma first_nonallowed_none vs :
  first_nonallowed vs = None -> Forall (fun v => v = 0) vs.
Proof.
  induction vs as [|v vs IH]; cbn [first_nonallowed]; intros H; [constructor|].
  destruct (allowed v) eqn:Ha; [|discriminate].
  constructor; [apply Z.eqb_eq; exact Ha | apply IH; exact H].
Qed.

Lemma first_nonallowed_some vs v :
  first_nonallowed vs = Some v -> In v vs /\ allowed v = false.
Proof.
  induction vs as [|w vs IH]; cbn [first_nonallowed]; intros H; [discriminate|].
  destruct (allowed w) eqn:Ha.
  - destruct (IH H). split; [right|]; assumption.
  - inversion H; subst. split; [left; reflexivity | exact Ha].
Qed.

Lemma authorizing_first_nonallowed get put fm o :
  match first_nonallowed (map (sem (tree_of get put fm o)) (dedup_sort (names_of o))) with
  | None => forwarded (authorizing get put fm o) = true
  | Some v => forwarded (authorizing get put fm o) = false /\ code (authorizing get put fm o) = v
  end.
Proof.
  destruct o as [n|n c|n|ns]; cbn [Auth.authorizing names_of tree_of].
  1-3: destruct (authorize _ [n]) as [vs lg] eqn:Ha; apply (f_equal fst) in Ha;
    rewrite (authorize_spec _ [n]) in Ha; cbn [fst map] in Ha; subst vs; cbn;
    destruct (allowed _); [reflexivity|split; reflexivity].
  destruct (authorize fm (dedup_sort ns)) as [vs lg] eqn:Ha. apply (f_equal fst) in Ha.
  rewrite (authorize_spec fm (dedup_sort ns)) in Ha. cbn [fst] in Ha. subst vs.
  destruct (first_nonallowed _) as [v|]; [split; reflexivity|reflexivity].
Qed.

Theorem backend_only_if_all_allowed get put fm o :
  forwarded (authorizing get put fm o) = true ->
  forall n, In n (names_of o) -> sem (tree_of get put fm o) n = 0.
Proof.
  intros Hf n Hin. pose proof (authorizing_first_nonallowed get put fm o) as H.
  destruct (first_nonallowed _) as [v|] eqn:Hfn; [destruct H; congruence|].
  apply first_nonallowed_none in Hfn. rewrite Forall_forall in Hfn.
  apply Hfn. apply in_map. apply dedup_sort_in. exact Hin.
Qed.

(** When the backend is not contacted, the caller receives the verdict of
    one of the names involved, and that verdict is not a grant. *)
Theorem rejected_gets_authorizer_error get put fm o :
  forwarded (authorizing get put fm o) = false ->
  exists n, In n (names_of o) /\ code (authorizing get put fm o) = sem (tree_of get put fm o) n
            /\ allowed (sem (tree_of get put fm o) n) = false.
Proof.
  intros Hf. pose proof (authorizing_first_nonallowed get put fm o) as H.
  destruct (first_nonallowed _) as [v|] eqn:Hfn; [|congruence]. destruct H as [_ Hc].
  apply first_nonallowed_some in Hfn. destruct Hfn as [Hin Hna].
  apply in_map_iff in Hin. destruct Hin as (n & <- & Hin).
  exists n. split; [apply dedup_sort_in; exact Hin|]. split; [exact Hc|exact Hna].
Qed.

Theorem put_buffer_exactly_once get put fm n :
  let r := authorizing get put fm (OPut n) in
  (forwarded r = true -> buf r = BufPassedOn) /\
  (forwarded r = false -> buf r = BufDiscarded).
Proof.
  cbn [Auth.authorizing]. destruct (authorize put [n]) as [vs lg]. cbn.
  destruct (allowed (hd 7 vs)); split; intros H; try reflexivity; discriminate.
Qed.

(** Trees of prefix leaves only: the verdict is a grant iff the union of the
    allowed prefixes covers the name, else a denial (never another failure). *)
Theorem static_sem t :
  static_only t = true -> forall n, sem t n = prefix_sem (all_prefixes t) (nm n).
Proof.
  induction t as [id tbl|ps|ms HF] using atree_ind'; intros Hst n.
  - discriminate.
  - reflexivity.
  - cbn [Auth.sem all_prefixes static_only] in *.
    induction ms as [|a ms IH]; [reflexivity|].
    inversion HF as [|a' ms' Ha Hms]; subst.
    cbn [forallb] in Hst. apply andb_true_iff in Hst. destruct Hst as [Hsa Hsm].
    cbn [map first_nondenied flat_map]. rewrite (Ha Hsa n), (IH Hms Hsm).
    unfold prefix_sem, covered. rewrite existsb_app.
    destruct (existsb (fun p => is_prefix p (nm n)) (all_prefixes a)); reflexivity.
Qed.

Theorem static_backend_iff_covered get put fm o :
  static_only (tree_of get put fm o) = true ->
  forwarded (authorizing get put fm o) =
  forallb (fun n => covered (all_prefixes (tree_of get put fm o)) (nm n)) (names_of o).
Proof.
  intros Hst. apply eq_iff_eq_true. rewrite forallb_forall. split.
  - intros Hf n Hn. pose proof (backend_only_if_all_allowed get put fm o Hf n Hn) as H.
    rewrite (static_sem _ Hst) in H. unfold prefix_sem in H.
    destruct (covered _ _); [reflexivity|discriminate].
  - intros Hall. destruct (forwarded (authorizing get put fm o)) eqn:Hf; [reflexivity|].
    destruct (rejected_gets_authorizer_error get put fm o Hf) as (n & Hn & _ & Hna).
    rewrite (static_sem _ Hst) in Hna. unfold prefix_sem in Hna.
    rewrite (Hall n Hn) in Hna. discriminate.
Qed.

Theorem static_rejection_is_permission_denied get put fm o :
  static_only (tree_of get put fm o) = true ->
  forwarded (authorizing get put fm o) = false ->
  code (authorizing get put fm o) = 7.
Proof.
  intros Hst Hf.
  destruct (rejected_gets_authorizer_error get put fm o Hf) as (n & Hn & Hc & Hna).
  rewrite Hc. rewrite (static_sem _ Hst) in *. unfold prefix_sem in *.
  destruct (covered _ _); [discriminate|reflexivity].
Qed.

End WithNames.
