(** Model of pkg/auth/any_authorizer.go, pkg/auth/static_authorizer.go over the
    instance-name trie filled by pkg/auth/configuration/authorizer_factory.go
    (policy instance_name_prefix) and pkg/blobstore/authorizing_blob_access.go.
    Definitions only (proofs: AuthProofs.v). *)
From BBS Require Import Common.Sx Common.ListX Routing.Names Routing.Trie.

(** gRPC codes as Z: 0 = OK (allowed), 7 = PermissionDenied (denied), anything
    else = a failure other than denial. *)
Definition vd := Z.
Definition allowed (v : vd) : bool := Z.eqb v 0.
Definition denied (v : vd) : bool := Z.eqb v 7.

(** Names are small naturals (indices into the name alphabet of the case,
    [nm] below).  A scripted leaf authorizer is an oracle answering each name
    on its own (table lookup; unknown names are denied); every scripted leaf
    has an identity so that calls can be logged.  A [Prefix] leaf is the
    static authorizer the configuration factory builds for the policy
    instance_name_prefix: [auth.NewStaticAuthorizer(trie.ContainsPrefix)] over
    a fresh [digest.InstanceNameTrie] into which every allowed prefix was
    [Set] to 0, in the order of the configuration. *)
Inductive atree : Type :=
| Leaf (id : nat) (tbl : list vd)
| Prefix (ps : list (list comp))
| Any (ms : list atree).

Definition leaf_answer (tbl : list vd) (n : nat) : vd := nth n tbl 7.

(** authorizer_factory.go: trie := NewInstanceNameTrie(); for each prefix: trie.Set(prefix, 0) *)
Definition build_trie (ps : list (list comp)) : trie :=
  fold_left (fun t p => set t p 0) ps empty_trie.
(** static_authorizer.go: nil if the matcher (ContainsPrefix, the C19 model of
    the Go loop) accepts the name, else the fixed PermissionDenied error. *)
Definition prefix_answer (ps : list (list comp)) (n : list comp) : vd :=
  if contains_prefix (build_trie ps) n then 0 else 7.

(** Specification of a prefix leaf, knowing nothing about tries: the name is
    covered iff some allowed prefix is a component-wise prefix of it. *)
Definition covered (ps : list (list comp)) (n : list comp) : bool :=
  existsb (fun p => is_prefix p n) ps.
Definition prefix_sem (ps : list (list comp)) (n : list comp) : vd :=
  if covered ps n then 0 else 7.

(** A call log entry: leaf id and the names it was asked about. *)
Definition call := (nat * list nat)%type.

Section WithNames.
(** The instance name (component list) a name index stands for. *)
Variable nm : nat -> list comp.

(** The names whose verdict so far has code PermissionDenied
    ([currentInstanceNames] in the code; the parallel index slice
    [currentErrsIndex] is rendered by [merge] walking both lists). *)
Fixpoint still_denied (names : list nat) (errs : list vd) : list nat :=
  match names, errs with
  | n :: ns, e :: es => if denied e then n :: still_denied ns es else still_denied ns es
  | _, _ => []
  end.

(** errs[currentErrsIndex[i]] = res[i] for every i whose res is not a denial
    (a denial overwrites a denial, which leaves the code unchanged). *)
Fixpoint merge (errs res : list vd) : list vd :=
  match errs with
  | [] => []
  | e :: es =>
      if denied e then
        match res with
        | r :: rs => r :: merge es rs
        | [] => e :: es
        end
      else e :: merge es res
  end.

(** The code, with the recursion over the tree made structural.
    [authorize t names] = (verdict per name, calls made on leaves in order). *)
Fixpoint authorize (t : atree) (names : list nat) {struct t} : list vd * list call :=
  match t with
  | Leaf id tbl => (map (leaf_answer tbl) names, [(id, names)])
  | Prefix ps => (map (fun n => prefix_answer ps (nm n)) names, [])   (* not a logging leaf *)
  | Any ms =>
      match ms with
      | [] => (map (fun _ => 7) names, [])       (* NewAnyAuthorizer: static deny-all *)
      | m0 :: rest =>
          let '(errs0, log0) := authorize m0 names in
          (fix loop (rest : list atree) (errs : list vd) (log : list call)
             {struct rest} : list vd * list call :=
             match rest with
             | [] => (errs, log)
             | m :: rest' =>
                 match still_denied names errs with
                 | [] => (errs, log)                (* break *)
                 | cn =>
                     let '(res, lg) := authorize m cn in
                     loop rest' (merge errs res) (log ++ lg)
                 end
             end) rest errs0 log0
      end
  end.

(** Specification: the first verdict among members that is not a denial,
    otherwise a denial. *)
Fixpoint first_nondenied (vs : list vd) : vd :=
  match vs with
  | [] => 7
  | v :: vs' => if denied v then first_nondenied vs' else v
  end.

Fixpoint sem (t : atree) (n : nat) {struct t} : vd :=
  match t with
  | Leaf _ tbl => leaf_answer tbl n
  | Prefix ps => prefix_sem ps (nm n)
  | Any ms => first_nondenied (map (fun m => sem m n) ms)
  end.

(** The authorizing decorator.  Operations carry the instance names of the
    digests involved. *)
Inductive aop : Type :=
| OGet (n : nat)
| OGetFromComposite (parent child : nat)
| OPut (n : nat)
| OFindMissing (ns : list nat).          (* one name per digest of the set *)

Inductive bufev := BufNone | BufPassedOn | BufDiscarded | BufLeaked.

Record aresult := {
  forwarded : bool;          (* backend contacted *)
  code : vd;                 (* code returned when not forwarded *)
  buf : bufev;
  calls : list call;
}.

Fixpoint first_nonallowed (vs : list vd) : option vd :=
  match vs with
  | [] => None
  | v :: vs' => if allowed v then first_nonallowed vs' else Some v
  end.

(** A rejected Put releases its buffer ([BufDiscarded]). *)
Definition authorizing (get put fm : atree) (o : aop) : aresult :=
  match o with
  | OGet n | OGetFromComposite n _ =>
      let '(vs, lg) := authorize get [n] in
      let v := hd 7 vs in
      {| forwarded := allowed v; code := v; buf := BufNone; calls := lg |}
  | OPut n =>
      let '(vs, lg) := authorize put [n] in
      let v := hd 7 vs in
      {| forwarded := allowed v; code := v;
         buf := if allowed v then BufPassedOn else BufDiscarded; calls := lg |}
  | OFindMissing ns =>
      (* The code iterates a Go map, so the order of the distinct names is
         unspecified; the model uses the sorted order and [agree] accepts
         any non-allowed name's code. *)
      let names := dedup_sort ns in
      let '(vs, lg) := authorize fm names in
      match first_nonallowed vs with
      | None => {| forwarded := true; code := 0; buf := BufNone; calls := lg |}
      | Some v => {| forwarded := false; code := v; buf := BufNone; calls := lg |}
      end
  end.

Definition names_of (o : aop) : list nat :=
  match o with
  | OGet n | OPut n => [n]
  | OGetFromComposite p _ => [p]
  | OFindMissing ns => ns
  end.
Definition tree_of (get put fm : atree) (o : aop) : atree :=
  match o with
  | OGet _ | OGetFromComposite _ _ => get
  | OPut _ => put
  | OFindMissing _ => fm
  end.
End WithNames.

(** Trees made of prefix leaves and 'any' only (what a configuration without
    scripted/remote/JMESPath members yields), and the union of their allowed
    prefixes.  Used by the monitor clauses 4 and 5, which are stated on the
    allowed prefixes of the input alone. *)
Fixpoint static_only (t : atree) : bool :=
  match t with
  | Leaf _ _ => false
  | Prefix _ => true
  | Any ms => forallb static_only ms
  end.
Fixpoint all_prefixes (t : atree) : list (list comp) :=
  match t with
  | Leaf _ _ => []
  | Prefix ps => ps
  | Any ms => flat_map all_prefixes ms
  end.
