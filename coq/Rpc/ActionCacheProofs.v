(** Action Cache client∘server: identity on keys, round trip, separation of
    digest functions, the server's handling of the digest_function field. *)
From Coq Require Import List ZArith Bool Lia.
From BBS Require Import Common.Sx Rpc.ActionCache.
Import ListNotations.
Open Scope Z_scope.

Lemma ackey_eqb_eq a b : ackey_eqb a b = true <-> a = b.
Proof.
  unfold ackey_eqb. destruct a, b. cbn. rewrite !andb_true_iff, !Z.eqb_eq. split.
  - intros [[[[-> ->] ->] ->] ->]. reflexivity.
  - intro H. inversion H. auto.
Qed.

Lemma ackey_eqb_refl a : ackey_eqb a a = true.
Proof. apply ackey_eqb_eq. reflexivity. Qed.

Lemma ackey_eqb_neq a b : a <> b -> ackey_eqb a b = false.
Proof. intro H. destruct (ackey_eqb a b) eqn:E; [apply ackey_eqb_eq in E; contradiction|reflexivity]. Qed.

Lemma ac_get_put_same st k v : ac_get (ac_put st k v) k = Some v.
Proof. unfold ac_get, ac_put. cbn. rewrite ackey_eqb_refl. reflexivity. Qed.

Lemma find_filter_other (st : acstore) k k' :
  k <> k' ->
  find (fun e => ackey_eqb (fst e) k') (filter (fun e => negb (ackey_eqb (fst e) k)) st)
  = find (fun e => ackey_eqb (fst e) k') st.
Proof.
  intro H. induction st as [|[a x] st IH]; [reflexivity|]. cbn.
  destruct (ackey_eqb a k) eqn:E1; cbn.
  - apply ackey_eqb_eq in E1. subst a. rewrite (ackey_eqb_neq _ _ H). exact IH.
  - destruct (ackey_eqb a k'); [reflexivity|exact IH].
Qed.

Lemma ac_get_put_other st k k' v : k <> k' -> ac_get (ac_put st k v) k' = ac_get st k'.
Proof.
  intro H. unfold ac_get, ac_put. cbn. rewrite (ackey_eqb_neq _ _ H), (find_filter_other _ _ _ H). reflexivity.
Qed.

Lemma fn_len_supported f l : fn_len f = Some l -> 1 <= f <= 8.
Proof.
  unfold fn_len. repeat match goal with |- context [?a =? ?b] => destruct (Z.eqb_spec a b) end;
    intro; try discriminate; lia.
Qed.

(** An explicit, supported digest function is used as is. *)
Lemma get_bare_function_explicit f l len : fn_len f = Some l -> get_bare_function f len = Some f.
Proof.
  intro H. unfold get_bare_function. pose proof (fn_len_supported _ _ H).
  destruct (f =? 0) eqn:E; [apply Z.eqb_eq in E; lia|]. rewrite H. reflexivity.
Qed.

Lemma server_digest_accepts inst_ok q f :
  get_bare_function (k_fn q) (k_len q) = Some f ->
  key_wf inst_ok (mkK (k_inst q) f (k_len q) (k_hi q) (k_size q)) = true ->
  server_digest inst_ok q = inr (mkK (k_inst q) f (k_len q) (k_hi q) (k_size q)).
Proof.
  unfold key_wf, server_digest. cbn [k_inst k_fn k_len k_size]. intros Hf H.
  apply andb_prop in H. destruct H as [H Hs]. apply andb_prop in H. destruct H as [Hi Hl].
  rewrite Hi, Hf. cbn [negb]. destruct (fn_len f) as [l|]; [|discriminate]. rewrite Hl. cbn [negb].
  apply Z.leb_le in Hs. destruct (k_size q <? 0) eqn:E; [apply Z.ltb_lt in E; lia|reflexivity].
Qed.

Lemma key_wf_fn_len inst_ok k : key_wf inst_ok k = true -> fn_len (k_fn k) = Some (k_len k).
Proof.
  unfold key_wf. intro H. apply andb_prop in H. destruct H as [H _]. apply andb_prop in H. destruct H as [_ H].
  destruct (fn_len (k_fn k)) as [l|]; [|discriminate]. apply Z.eqb_eq in H. rewrite H. reflexivity.
Qed.

(** client∘server is the identity on keys: the backend is asked for exactly
    the key the caller named. *)
Lemma server_digest_wf inst_ok k : key_wf inst_ok k = true -> server_digest inst_ok (client_request k) = inr k.
Proof.
  intro H. destruct k as [i f len hi sz].
  apply (server_digest_accepts inst_ok (mkK i f len hi sz) f); [|exact H].
  exact (get_bare_function_explicit _ _ _ (key_wf_fn_len _ _ H)).
Qed.

(** Whatever the request, the key the server uses is well formed, keeps
    instance name, hash and size, and its function is the requested one
    unless that was UNKNOWN; failures are INVALID_ARGUMENT. *)
Lemma server_digest_inr inst_ok q k :
  server_digest inst_ok q = inr k ->
  key_wf inst_ok k = true /\ k_inst k = k_inst q /\ k_len k = k_len q /\ k_hi k = k_hi q /\ k_size k = k_size q
  /\ (k_fn q <> 0 -> k_fn k = k_fn q) /\ (k_fn q = 0 -> infer_fn (k_len q) = Some (k_fn k)).
Proof.
  unfold server_digest. destruct (inst_ok (k_inst q)) eqn:Ei; cbn [negb]; [|discriminate].
  destruct (get_bare_function (k_fn q) (k_len q)) as [f|] eqn:Eg; [|discriminate].
  destruct (fn_len f) as [l|] eqn:El; [|discriminate].
  destruct (k_len q =? l) eqn:Ell; cbn [negb]; [|discriminate].
  destruct (k_size q <? 0) eqn:Es; [discriminate|]. intro H. inversion H. subst k. cbn.
  unfold key_wf. cbn. rewrite Ei, El, Ell. apply Z.ltb_ge in Es.
  repeat split; auto.
  - apply andb_true_iff. split; [reflexivity|apply Z.leb_le; exact Es].
  - intro Hn. unfold get_bare_function in Eg. destruct (k_fn q =? 0) eqn:E0; [apply Z.eqb_eq in E0; contradiction|].
    destruct (fn_len (k_fn q)); inversion Eg. reflexivity.
  - intro Hz. unfold get_bare_function in Eg. rewrite Hz in Eg. cbn in Eg. exact Eg.
Qed.

Lemma server_digest_inl inst_ok q c : server_digest inst_ok q = inl c -> c = cInvalidArgument.
Proof.
  unfold server_digest. destruct (negb (inst_ok (k_inst q))); [intro H; inversion H; reflexivity|].
  destruct (get_bare_function (k_fn q) (k_len q)) as [f|]; [|intro H; inversion H; reflexivity].
  destruct (fn_len f) as [l|]; [|intro H; inversion H; reflexivity].
  destruct (negb (k_len q =? l)); [intro H; inversion H; reflexivity|].
  destruct (k_size q <? 0); [intro H; inversion H; reflexivity|discriminate].
Qed.

(** Inference only ever yields a legacy function. *)
Lemma infer_fn_legacy len f : infer_fn len = Some f -> 1 <= f <= 5 /\ fn_len f = Some len.
Proof.
  unfold infer_fn. repeat match goal with |- context [?a =? ?b] => destruct (Z.eqb_spec a b) end;
    intro H; try discriminate; inversion H; subst; split; try lia; reflexivity.
Qed.

Lemma client_put_wf inst_ok st k v :
  key_wf inst_ok k = true -> client_put inst_ok st k v = (ac_put st k v, mkR 0 0 [(false, k)]).
Proof. intro H. unfold client_put, server_update. rewrite (server_digest_wf _ _ H). reflexivity. Qed.

Lemma client_get_wf inst_ok st k :
  key_wf inst_ok k = true ->
  client_get inst_ok st k = match ac_get st k with
                            | Some v => mkR 0 v [(true, k)]
                            | None => mkR cNotFoundAC 0 [(true, k)]
                            end.
Proof. intro H. unfold client_get, server_get. rewrite (server_digest_wf _ _ H). reflexivity. Qed.

Lemma client_server_put_get inst_ok st k v :
  key_wf inst_ok k = true ->
  exists st', client_put inst_ok st k v = (st', mkR 0 0 [(false, k)])
    /\ client_get inst_ok st' k = mkR 0 v [(true, k)].
Proof.
  intro H. exists (ac_put st k v). split; [apply client_put_wf; exact H|].
  rewrite (client_get_wf _ _ _ H), ac_get_put_same. reflexivity.
Qed.

Lemma client_server_put_other inst_ok st k k' v :
  key_wf inst_ok k = true -> key_wf inst_ok k' = true -> k <> k' ->
  client_get inst_ok (fst (client_put inst_ok st k v)) k' = client_get inst_ok st k'.
Proof.
  intros H H' Hn. rewrite (client_put_wf _ _ _ _ H). cbn [fst].
  rewrite !(client_get_wf _ _ _ H'), (ac_get_put_other _ _ _ _ Hn). reflexivity.
Qed.

Lemma client_server_not_found inst_ok st k :
  key_wf inst_ok k = true -> ac_get st k = None -> client_get inst_ok st k = mkR cNotFoundAC 0 [(true, k)].
Proof. intros H Hg. rewrite (client_get_wf _ _ _ H), Hg. reflexivity. Qed.

(** A request without the digest_function field is NOT a substitute for the
    client's request: for BLAKE3, SHA256TREE and GITSHA1 keys the server
    would use another key. *)
Lemma unknown_function_other_key inst_ok k k' :
  key_wf inst_ok k = true -> 6 <= k_fn k <= 8 ->
  server_digest inst_ok (mkK (k_inst k) 0 (k_len k) (k_hi k) (k_size k)) = inr k' ->
  k' <> k /\ 1 <= k_fn k' <= 5.
Proof.
  intros Hwf Hf H. apply server_digest_inr in H. cbn in H.
  destruct H as (_ & _ & _ & _ & _ & _ & Hi). specialize (Hi eq_refl).
  apply infer_fn_legacy in Hi. destruct Hi as [Hr _]. split; [|exact Hr].
  intro E. subst k'. lia.
Qed.

Lemma unknown_function_same_key inst_ok k :
  key_wf inst_ok k = true -> 1 <= k_fn k <= 5 ->
  server_digest inst_ok (mkK (k_inst k) 0 (k_len k) (k_hi k) (k_size k)) = inr k.
Proof.
  intros H Hf. destruct k as [i f len hi sz]. cbn [k_inst k_fn k_len k_hi k_size] in *.
  apply (server_digest_accepts inst_ok (mkK i 0 len hi sz) f); [|exact H].
  (* the legacy functions are told apart by their hash lengths *)
  pose proof (key_wf_fn_len _ _ H) as El. cbn [k_fn k_len] in El. unfold get_bare_function. cbn [k_fn k_len Z.eqb].
  assert (Hc : f = 1 \/ f = 2 \/ f = 3 \/ f = 4 \/ f = 5) by lia.
  destruct Hc as [-> | [-> | [-> | [-> | ->]]]]; inversion El; reflexivity.
Qed.
