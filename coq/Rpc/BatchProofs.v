From Coq Require Import List ZArith Bool Lia.
From BBS Require Import Rpc.ByteStream Rpc.Batch.
Import ListNotations.
Open Scope Z_scope.

Section WithHash.
Variable hashf : bytes -> Z.

Lemma batch_update_length es : length (batch_update hashf es) = length es.
Proof. unfold batch_update. apply map_length. Qed.

(** Entry i gets its own status; it is stored iff the status is OK, and then
    the stored bytes are the entry's data and match its digest. *)
Lemma batch_update_entry_spec d data pm c o :
  batch_update_entry hashf d data pm = (c, o) ->
  (c = 0 <-> o <> None) /\ (forall x, o = Some x -> x = data /\ valid hashf d data = true /\ pm = 0).
Proof.
  unfold batch_update_entry.
  destruct (d_size d <? 0); [intros H; injection H as <- <-; split; [split; [discriminate|congruence]|discriminate]|].
  destruct (pm =? 0) eqn:Ep; cbn [negb].
  - apply Z.eqb_eq in Ep. destruct (valid hashf d data) eqn:Hv; intros H; injection H as <- <-.
    + split; [split; [discriminate|reflexivity]|]. intros x Hx. injection Hx as <-. auto.
    + split; [split; [discriminate|congruence]|discriminate].
  - apply Z.eqb_neq in Ep. intros H; injection H as <- <-. split; [split; [contradiction|congruence]|discriminate].
Qed.

Theorem batch_update_per_entry es i d data pm :
  nth_error es i = Some (d, data, pm) ->
  exists c o, nth_error (batch_update hashf es) i = Some (c, o)
    /\ (c = 0 <-> o <> None)
    /\ (forall x, o = Some x -> x = data /\ valid hashf d data = true).
Proof.
  intros H. unfold batch_update. rewrite nth_error_map, H. cbn.
  destruct (batch_update_entry hashf d data pm) as [c o] eqn:E.
  exists c, o. split; [reflexivity|]. destruct (batch_update_entry_spec _ _ _ _ _ E) as [H1 H2].
  split; [exact H1|]. intros x Hx. destruct (H2 x Hx) as (A & B & _). auto.
Qed.

Theorem batch_update_never_stores_mismatch es c x :
  In (c, Some x) (batch_update hashf es) ->
  exists d data pm, In (d, data, pm) es /\ x = data /\ valid hashf d x = true /\ c = 0.
Proof.
  unfold batch_update. rewrite in_map_iff. intros ([[d data] pm] & E & Hin). cbn in E.
  destruct (batch_update_entry_spec _ _ _ _ _ E) as [H1 H2].
  destruct (H2 x eq_refl) as (-> & Hv & _). exists d, data, pm. repeat split; try assumption.
  apply H1. discriminate.
Qed.

Lemma batch_read_some get maxsz ds rs :
  batch_read get maxsz ds = Some rs -> rs = map (batch_read_entry get) ds.
Proof.
  unfold batch_read. destruct ds as [|d0 ds']; [intros H; injection H as <-; reflexivity|].
  destruct (budget_ok maxsz (d0 :: ds')); [|discriminate]. intros H. injection H as <-. reflexivity.
Qed.

(** BatchReadBlobs over a validating backend: an OK status comes with exactly
    the backend's bytes and they match the digest; any other status with no data. *)
Theorem batch_read_never_delivers_mismatch held maxsz ds rs i d :
  batch_read (fun d => backend_get hashf (held d) d) maxsz ds = Some rs ->
  nth_error ds i = Some d ->
  exists c x, nth_error rs i = Some (c, x)
    /\ (c = 0 -> held d = Some x /\ valid hashf d x = true)
    /\ (c <> 0 -> x = []).
Proof.
  intros H Hn. apply batch_read_some in H. subst rs.
  rewrite nth_error_map, Hn. cbn. unfold batch_read_entry, backend_get.
  destruct (held d) as [x|] eqn:Hh.
  - destruct (valid hashf d x) eqn:Hv.
    + exists 0, x. split; [reflexivity|]. split; [auto|]. intros Hc. contradiction.
    + exists cInternal, []. split; [reflexivity|]. split; [discriminate|reflexivity].
  - exists cNotFound, []. split; [reflexivity|]. split; [discriminate|reflexivity].
Qed.

Theorem batch_read_per_entry get maxsz ds rs :
  batch_read get maxsz ds = Some rs -> length rs = length ds.
Proof. intros H. apply batch_read_some in H. subst rs. apply map_length. Qed.

Lemma dig_eqb_true_iff a b : dig_eqb a b = true <-> a = b.
Proof.
  destruct a as [h1 s1], b as [h2 s2]. unfold dig_eqb. cbn [d_hash d_size].
  rewrite andb_true_iff, !Z.eqb_eq. split; [intros [-> ->]; reflexivity|intro H; inversion H; auto].
Qed.

Lemma find_missing_ne missing fmerr ds :
  ds <> [] ->
  find_missing missing fmerr ds =
  if existsb (fun d => d_size d <? 0) ds then (cInvalidArgument, [])
  else if negb (fmerr =? 0) then (fmerr, []) else (0, filter missing ds).
Proof. destruct ds; [congruence|reflexivity]. Qed.

Lemma find_missing_answers missing ds :
  Forall (fun d => 0 <= d_size d) ds -> find_missing missing 0 ds = (0, filter missing ds).
Proof.
  intro H. destruct ds as [|d0 ds']; [reflexivity|]. unfold find_missing.
  destruct (existsb _ _) eqn:Ex; [|reflexivity].
  apply existsb_exists in Ex. destruct Ex as (d & Hd & Hlt). rewrite Forall_forall in H.
  specialize (H d Hd). apply Z.ltb_lt in Hlt. lia.
Qed.

Lemma find_missing_ok_filter missing fmerr ds ms :
  find_missing missing fmerr ds = (0, ms) -> ms = filter missing ds.
Proof.
  unfold find_missing. destruct ds as [|d0 ds']; [intro H; inversion H; reflexivity|].
  destruct (existsb _ _); [discriminate|].
  destruct (fmerr =? 0) eqn:E; cbn [negb]; intro H; inversion H; [reflexivity|].
  subst. rewrite Z.eqb_refl in E. discriminate.
Qed.

Lemma find_missing_err_nil missing fmerr ds c ms :
  find_missing missing fmerr ds = (c, ms) -> c <> 0 -> ms = [].
Proof.
  unfold find_missing. destruct ds as [|d0 ds']; [intros H; inversion H; contradiction|].
  destruct (existsb _ _); [intros H; inversion H; reflexivity|].
  destruct (negb (fmerr =? 0)); intros H; inversion H; [reflexivity|contradiction].
Qed.

(** FindMissingBlobs returns exactly the requested digests the backend reports missing. *)
Theorem find_missing_exact missing ds ms :
  find_missing missing 0 ds = (0, ms) ->
  forall d, In d ms <-> In d ds /\ missing d = true.
Proof. intros H d. rewrite (find_missing_ok_filter _ _ _ _ H). apply filter_In. Qed.

Theorem find_missing_backend_error missing fmerr ds :
  fmerr <> 0 -> ds <> [] -> snd (find_missing missing fmerr ds) = [].
Proof.
  intros Hf Hd. unfold find_missing. destruct ds as [|d0 ds']; [contradiction|].
  destruct (existsb _ _); [reflexivity|]. destruct (fmerr =? 0) eqn:E; [apply Z.eqb_eq in E; contradiction|]. reflexivity.
Qed.

End WithHash.
