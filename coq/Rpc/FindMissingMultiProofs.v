(** C14F — the client's FindMissing over several instance names / digest
    functions, composed with the server, answers like the backend. *)
From Coq Require Import List ZArith Bool Lia.
From BBS Require Import Rpc.ByteStream Rpc.Batch Rpc.BatchProofs Rpc.FindMissingMulti.
Import ListNotations.
Open Scope Z_scope.

Lemma key_eqb_eq a b : key_eqb a b = true <-> a = b.
Proof.
  destruct a as [a1 a2], b as [b1 b2]. unfold key_eqb. cbn [fst snd].
  rewrite andb_true_iff, !Z.eqb_eq. split; [intros [-> ->]; reflexivity|intro H; inversion H; auto].
Qed.

Lemma key_eqb_refl a : key_eqb a a = true.
Proof. apply key_eqb_eq. reflexivity. Qed.

Lemma qdig_eqb_eq a b : qdig_eqb a b = true <-> a = b.
Proof.
  unfold qdig_eqb. rewrite andb_true_iff, key_eqb_eq, dig_eqb_true_iff.
  destruct a as [i1 f1 d1], b as [i2 f2 d2]. unfold qkey. cbn [q_inst q_fn q_dig].
  split; [intros [H ->]; inversion H; reflexivity|intro H; inversion H; auto].
Qed.

Lemma requalify_eta q : requalify (qkey q) (q_dig q) = q.
Proof. destruct q. reflexivity. Qed.

Lemma qkey_requalify k d : qkey (requalify k d) = k.
Proof. destruct k. reflexivity. Qed.

Lemma q_dig_requalify k d : q_dig (requalify k d) = d.
Proof. reflexivity. Qed.

Lemma dedup_keys_in k : forall ks, In k (dedup_keys ks) <-> In k ks.
Proof.
  induction ks as [|k0 ks IH]; [reflexivity|]. cbn [dedup_keys In]. rewrite filter_In, IH.
  destruct (key_eqb k0 k) eqn:E.
  - apply key_eqb_eq in E. subst. cbn. tauto.
  - cbn [negb]. split; [tauto|]. intros [H|H]; [left; exact H|right; auto].
Qed.

Lemma dedup_keys_nodup : forall ks, NoDup (dedup_keys ks).
Proof.
  induction ks as [|k0 ks IH]; [constructor|]. cbn [dedup_keys]. constructor.
  - rewrite filter_In. intros [_ H]. rewrite key_eqb_refl in H. discriminate.
  - apply NoDup_filter. exact IH.
Qed.

(** Every requested digest lands in the partition of its own key. *)
Theorem keys_cover qs q : In q qs -> In (qkey q) (keys qs).
Proof. intro H. unfold keys. apply dedup_keys_in. apply in_map. exact H. Qed.

Theorem keys_nodup qs : NoDup (keys qs).
Proof. apply dedup_keys_nodup. Qed.

Theorem keys_only_requested qs k : In k (keys qs) -> exists q, In q qs /\ qkey q = k.
Proof.
  unfold keys. rewrite dedup_keys_in, in_map_iff. intros (q & E & H). exists q. auto.
Qed.

(** One RPC carries digests of a single instance name and digest function. *)
Theorem partition_of_in k qs q : In q (partition_of k qs) <-> In q qs /\ qkey q = k.
Proof. unfold partition_of. rewrite filter_In, key_eqb_eq. reflexivity. Qed.

Lemma part_result_ok missing err qs k ms :
  part_result missing err qs k = (0, ms) ->
  forall q, In q ms <-> In q qs /\ qkey q = k /\ missing q = true.
Proof.
  unfold part_result.
  destruct (find_missing _ (err k) (map q_dig (partition_of k qs))) as [c ds] eqn:E.
  intro H. inversion H. subst c ms. apply find_missing_ok_filter in E. subst ds. intro q.
  rewrite in_map_iff. split.
  - intros (d & <- & Hd). apply filter_In in Hd. destruct Hd as [Hd Hm].
    apply in_map_iff in Hd. destruct Hd as (q' & <- & Hq'). apply partition_of_in in Hq'.
    destruct Hq' as [Hin Hk]. subst k. rewrite requalify_eta in *. auto.
  - intros (Hin & Hk & Hm). exists (q_dig q). subst k. rewrite requalify_eta. split; [reflexivity|].
    apply filter_In. rewrite requalify_eta. split; [|exact Hm].
    apply in_map. apply partition_of_in. auto.
Qed.

Lemma part_result_err missing err qs k c ms :
  part_result missing err qs k = (c, ms) -> c <> 0 -> ms = [].
Proof.
  unfold part_result.
  destruct (find_missing _ (err k) (map q_dig (partition_of k qs))) as [c' ds] eqn:E.
  intros H Hc. inversion H. subst c' ms. rewrite (find_missing_err_nil _ _ _ _ _ E Hc). reflexivity.
Qed.

(** The status of one RPC: a partition without members is never sent (and
    the server answers OK to an empty request anyway); a negative size is
    INVALID_ARGUMENT (NewDigestFromProto); otherwise the backend's status. *)
Lemma part_result_code missing err qs k :
  fst (part_result missing err qs k) =
  match partition_of k qs with
  | [] => 0
  | _ => if existsb (fun q => d_size (q_dig q) <? 0) (partition_of k qs) then cInvalidArgument else err k
  end.
Proof.
  unfold part_result.
  destruct (partition_of k qs) as [|q0 p] eqn:Ep; [reflexivity|].
  assert (Hex : forall l, existsb (fun d => d_size d <? 0) (map q_dig l)
                = existsb (fun q => d_size (q_dig q) <? 0) l).
  { induction l as [|a l IH]; [reflexivity|]. cbn. rewrite IH. reflexivity. }
  rewrite find_missing_ne by (cbn; discriminate). rewrite Hex.
  destruct (existsb _ (q0 :: p)); [reflexivity|].
  destruct (err k =? 0) eqn:E; cbn [negb fst]; [|reflexivity]. apply Z.eqb_eq in E. auto.
Qed.

Lemma part_result_code_wf missing err qs k :
  (forall q, In q qs -> 0 <= d_size (q_dig q)) ->
  fst (part_result missing err qs k) = match partition_of k qs with [] => 0 | _ => err k end.
Proof.
  intro Hsz. rewrite part_result_code. destruct (partition_of k qs) as [|q0 p] eqn:Ep; [reflexivity|].
  destruct (existsb _ (q0 :: p)) eqn:Ex; [|reflexivity].
  apply existsb_exists in Ex. destruct Ex as (q & Hq & Hlt). rewrite <- Ep in Hq.
  apply partition_of_in in Hq. destruct Hq as [Hq _]. specialize (Hsz q Hq).
  apply Z.ltb_lt in Hlt. lia.
Qed.

Lemma client_fm_loop_ok : forall rs acc ms,
  client_fm_loop rs acc = (0, ms) ->
  Forall (fun r => fst r = 0) rs /\ ms = acc ++ concat (map snd rs).
Proof.
  induction rs as [|r rs IH]; intros acc ms H; cbn [client_fm_loop] in H.
  - inversion H. split; [constructor|]. cbn. rewrite app_nil_r. reflexivity.
  - destruct (fst r =? 0) eqn:E.
    + apply Z.eqb_eq in E. destruct (IH _ _ H) as [H1 H2]. split; [constructor; assumption|].
      rewrite H2. cbn [map concat]. rewrite app_assoc. reflexivity.
    + inversion H as [[H0 H1]]. rewrite H0 in E. discriminate.
Qed.

Lemma client_fm_loop_all_ok : forall rs acc,
  Forall (fun r => fst r = 0) rs -> client_fm_loop rs acc = (0, acc ++ concat (map snd rs)).
Proof.
  induction rs as [|r rs IH]; intros acc H; cbn [client_fm_loop map concat].
  - rewrite app_nil_r. reflexivity.
  - inversion H as [|? ? H1 H2]. subst. rewrite H1. cbn [Z.eqb]. rewrite (IH _ H2), app_assoc. reflexivity.
Qed.

Lemma client_fm_loop_code : forall rs acc,
  fst (client_fm_loop rs acc) = hd 0 (filter (fun c => negb (c =? 0)) (map fst rs)).
Proof.
  induction rs as [|r rs IH]; intros acc; [reflexivity|]. cbn [client_fm_loop map filter].
  destruct (fst r =? 0); cbn [negb]; [apply IH|reflexivity].
Qed.

Lemma client_fm_loop_err : forall rs acc c ms,
  client_fm_loop rs acc = (c, ms) -> c <> 0 -> ms = [].
Proof.
  induction rs as [|r rs IH]; intros acc c ms H Hc; cbn [client_fm_loop] in H.
  - inversion H. subst. contradiction.
  - destruct (fst r =? 0); [eapply IH; eauto|]. inversion H. reflexivity.
Qed.

Section Client.
Variable missing : qdig -> bool.   (* the backend's answer, per (instance name, digest function, blob) *)
Variable err : pkey -> Z.          (* the backend's FindMissing status for a partition *)

(** ** find_missing_exact for sets over several instance names: whatever the
    order of the RPCs, whatever the partitions' statuses, an OK answer is
    exactly the set of requested (instance, function, blob) triples that the
    backend reports missing — a blob missing under instance [a] and present
    under instance [b] is reported under [a] and only under [a]. *)
Theorem client_find_missing_exact ks qs ms :
  (forall q, In q qs -> In (qkey q) ks) ->
  client_find_missing missing err ks qs = (0, ms) ->
  forall q, In q ms <-> In q qs /\ missing q = true.
Proof.
  intros Hcov H q. unfold client_find_missing in H. apply client_fm_loop_ok in H.
  destruct H as [Hall ->]. cbn [app]. rewrite Forall_forall in Hall.
  assert (Hok : forall k, In k ks -> forall q', In q' (snd (part_result missing err qs k))
                 <-> In q' qs /\ qkey q' = k /\ missing q' = true).
  { intros k Hk. apply (part_result_ok missing err). specialize (Hall _ (in_map _ _ _ Hk)).
    destruct (part_result missing err qs k) as [c msk]. cbn [fst snd] in *. subst c. reflexivity. }
  rewrite in_concat, map_map. split.
  - intros (l & Hl & Hq). apply in_map_iff in Hl. destruct Hl as (k & <- & Hk).
    apply (Hok k Hk) in Hq. tauto.
  - intros [Hin Hm]. exists (snd (part_result missing err qs (qkey q))). split.
    + apply (in_map (fun k => snd (part_result missing err qs k))), Hcov, Hin.
    + apply (Hok _ (Hcov q Hin)). auto.
Qed.

(** The status: that of the first failing RPC in the order of the loop. *)
Theorem client_find_missing_code ks qs :
  fst (client_find_missing missing err ks qs) = hd 0 (failing_codes missing err ks qs).
Proof.
  unfold client_find_missing, failing_codes. rewrite client_fm_loop_code, map_map. reflexivity.
Qed.

(** A failing call delivers no (partial) answer, and its status is that of
    one of the failing RPCs. *)
Theorem client_find_missing_failure ks qs c ms :
  client_find_missing missing err ks qs = (c, ms) -> c <> 0 ->
  ms = [] /\ In c (failing_codes missing err ks qs).
Proof.
  intros H Hc. split; [eapply client_fm_loop_err; eauto|].
  pose proof (client_find_missing_code ks qs) as Hcode. rewrite H in Hcode. cbn [fst] in Hcode.
  destruct (failing_codes missing err ks qs) as [|c0 l]; cbn [hd] in Hcode; [contradiction|].
  subst. left. reflexivity.
Qed.

(** The order of the RPCs (Go map order) does not matter for which statuses can occur. *)
Theorem failing_codes_order ks ks' qs c :
  (forall k, In k ks <-> In k ks') ->
  In c (failing_codes missing err ks qs) -> In c (failing_codes missing err ks' qs).
Proof.
  intros Hk. unfold failing_codes. rewrite !filter_In, !in_map_iff.
  intros [(k & E & Hin) Hc]. split; [|exact Hc]. exists k. split; [exact E|apply Hk; exact Hin].
Qed.

End Client.

(** ** client_server_find_missing: with a backend that answers (every
    partition OK) and well-formed digests, client and server back to back
    answer OK with exactly the backend's set, for every request and every
    order of the RPCs. *)
Theorem client_server_find_missing missing ks qs :
  (forall q, In q qs -> 0 <= d_size (q_dig q)) ->
  (forall q, In q qs -> In (qkey q) ks) ->
  exists ms, client_find_missing missing (fun _ => 0) ks qs = (0, ms)
    /\ forall q, In q ms <-> In q qs /\ missing q = true.
Proof.
  intros Hsz Hcov.
  assert (Hall : Forall (fun r => fst r = 0) (map (part_result missing (fun _ => 0) qs) ks)).
  { apply Forall_forall. intros r Hr. apply in_map_iff in Hr. destruct Hr as (k & <- & _).
    rewrite (part_result_code_wf _ _ _ _ Hsz). destruct (partition_of k qs); reflexivity. }
  eexists. split; [unfold client_find_missing; apply client_fm_loop_all_ok; exact Hall|].
  apply client_find_missing_exact with (err := fun _ => 0) (ks := ks); [exact Hcov|].
  unfold client_find_missing. apply client_fm_loop_all_ok. exact Hall.
Qed.

(** A concrete backend and request for which the exact answer has two members
    under different instance names (mapping answers back by hash alone would
    miss this). *)
Example multi_instance_answer :
  let h := mkD 1 12 in
  let qs := [mkQ 0 0 h; mkQ 1 0 h; mkQ 2 0 h] in
  let missing q := negb (q_inst q =? 1) in
  client_find_missing missing (fun _ => 0) (keys qs) qs = (0, [mkQ 0 0 h; mkQ 2 0 h]).
Proof. vm_compute. reflexivity. Qed.
