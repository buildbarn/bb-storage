From Coq Require Import List ZArith Bool Lia.
From BBS Require Import Rpc.ByteStream.
Import ListNotations.
Open Scope Z_scope.

Lemma blen_nonneg x : 0 <= blen x.
Proof. unfold blen. lia. Qed.

Lemma blen_app x y : blen (x ++ y) = blen x + blen y.
Proof. unfold blen. rewrite app_length. lia. Qed.

Lemma blen_nil_inv x : blen x = 0 -> x = [].
Proof. unfold blen. destruct x; cbn; [reflexivity|lia]. Qed.

Lemma blen_nil : blen [] = 0.
Proof. reflexivity. Qed.

Lemma concat_skip_empty (a : bytes) cs : concat (if 0 <? blen a then a :: cs else cs) = a ++ concat cs.
Proof.
  destruct (0 <? blen a) eqn:E; [reflexivity|]. apply Z.ltb_ge in E. pose proof (blen_nonneg a).
  rewrite (blen_nil_inv a) by lia. reflexivity.
Qed.

Fixpoint contiguous (woff : Z) (ms : list wmsg) : Prop :=
  match ms with
  | [] => True
  | m :: ms' => w_off m = woff /\ contiguous (woff + blen (w_data m)) ms'
  end.

(** [fin_ok fin ms]: starting with "finished = fin", the flag is false
    before every message and true after the last one. *)
Fixpoint fin_ok (fin : bool) (ms : list wmsg) : Prop :=
  match ms with
  | [] => fin = true
  | m :: ms' => fin = false /\ fin_ok (w_fin m) ms'
  end.

Definition finished_at_end (ms : list wmsg) : Prop :=
  exists pre l, ms = pre ++ [l] /\ w_fin l = true /\ Forall (fun m => w_fin m = false) pre.

Definition payload (ms : list wmsg) : bytes := concat (map w_data ms).

Lemma fin_ok_finished m ms : fin_ok (w_fin m) ms -> finished_at_end (m :: ms).
Proof.
  revert m. induction ms as [|m' ms IH]; intros m H; cbn in H.
  - exists [], m. cbn. auto.
  - destruct H as [Hf H]. destruct (IH m' H) as (pre & l & E & Hl & Hp).
    exists (m :: pre), l. cbn. rewrite E. split; [reflexivity|]. split; [exact Hl|].
    constructor; assumption.
Qed.

Lemma finished_fin_ok ms : finished_at_end ms -> fin_ok false ms.
Proof.
  intros (pre & l & E & Hl & Hp). subst ms.
  induction Hp as [|m pre Hm Hp IH]; cbn.
  - rewrite Hl. auto.
  - split; [reflexivity|]. rewrite Hm. exact IH.
Qed.

Section WithHash.
Variable hashf : bytes -> Z.
Variable decompress : bytes -> dres.
Variable compress : bytes -> bytes.

Lemma valid_size d x : valid hashf d x = true -> blen x = d_size d.
Proof. unfold valid. intro H. apply andb_prop in H. apply Z.eqb_eq, H. Qed.

Lemma drain_none src cs r : drain src cs r = None -> r = REof /\ concat cs = [].
Proof.
  induction cs as [|c cs IH]; cbn.
  - destruct r; [auto|discriminate].
  - destruct (0 <? blen c) eqn:E; [discriminate|]. intros H. destruct (IH H) as [-> Hc].
    split; [reflexivity|]. apply Z.ltb_ge in E. pose proof (blen_nonneg c).
    rewrite (blen_nil_inv c) by lia. exact Hc.
Qed.

Lemma vconsume_inl src d cs : forall rem acc r x, 0 <= rem ->
  vconsume hashf src d rem acc cs r = inl x ->
  r = REof /\ x = acc ++ concat cs /\ blen (concat cs) = rem /\ hashf x = d_hash d.
Proof.
  induction cs as [|c cs IH]; intros rem acc r x Hrem H; cbn [vconsume] in H.
  - destruct (rem <=? 0) eqn:E.
    + apply Z.leb_le in E. destruct r; cbn in H; [|discriminate].
      destruct (hashf acc =? d_hash d) eqn:Hh; [|discriminate]. injection H as <-.
      apply Z.eqb_eq in Hh. cbn [concat]. rewrite app_nil_r. repeat split; try assumption. rewrite blen_nil. lia.
    + destruct r; discriminate.
  - destruct (rem <=? 0) eqn:E.
    + apply Z.leb_le in E.
      destruct (drain src (c :: cs) r) eqn:Hd; [discriminate|].
      destruct (drain_none _ _ _ Hd) as [-> Hc].
      destruct (hashf acc =? d_hash d) eqn:Hh; [|discriminate]. injection H as <-.
      apply Z.eqb_eq in Hh. rewrite Hc, app_nil_r. repeat split; try assumption. rewrite blen_nil. lia.
    + apply Z.leb_gt in E. destruct (rem <? blen c) eqn:E2; [discriminate|]. apply Z.ltb_ge in E2.
      apply IH in H; [|lia]. destruct H as (-> & -> & Hl & Hh).
      cbn [concat]. rewrite blen_app, app_assoc. repeat split; try assumption. lia.
Qed.

Lemma drain_some src cs r c : drain src cs r = Some c -> c = src \/ r = RErr c.
Proof.
  induction cs as [|a cs IH]; cbn [drain].
  - destruct r as [|c']; [discriminate|]. intro H. inversion H. auto.
  - destruct (0 <? blen a); [intro H; inversion H; auto|exact IH].
Qed.

Lemma vconsume_inr src d cs r : forall rem acc c,
  vconsume hashf src d rem acc cs r = inr c -> c = src \/ r = RErr c.
Proof.
  assert (Hfin : forall cs acc c,
            match drain src cs r with
            | Some c' => inr c'
            | None => if hashf acc =? d_hash d then inl acc else inr src
            end = inr c -> c = src \/ r = RErr c).
  { intros cs' acc c. destruct (drain src cs' r) as [c'|] eqn:Hd.
    - intro H. inversion H. subst. exact (drain_some _ _ _ _ Hd).
    - destruct (hashf acc =? d_hash d); [discriminate|]. intro H. inversion H. auto. }
  induction cs as [|a cs IH]; intros rem acc c; cbn [vconsume]; destruct (rem <=? 0); try apply Hfin.
  - destruct r as [|c']; intro H; inversion H; auto.
  - destruct (rem <? blen a); [intro H; inversion H; auto|apply IH].
Qed.

Lemma drain_empty src cs : concat cs = [] -> drain src cs REof = None.
Proof.
  induction cs as [|c cs IH]; cbn; [reflexivity|]. intros H. apply app_eq_nil in H as [-> H].
  cbn. apply IH, H.
Qed.

Lemma vconsume_complete src d cs : forall rem acc,
  blen (concat cs) = rem -> hashf (acc ++ concat cs) = d_hash d ->
  vconsume hashf src d rem acc cs REof = inl (acc ++ concat cs).
Proof.
  induction cs as [|c cs IH]; intros rem acc Hl Hh; cbn [concat vconsume] in *.
  - rewrite blen_nil in Hl. subst rem. cbn. rewrite app_nil_r in *. rewrite Hh, Z.eqb_refl. reflexivity.
  - destruct (rem <=? 0) eqn:E.
    + apply Z.leb_le in E. rewrite blen_app in Hl. pose proof (blen_nonneg c). pose proof (blen_nonneg (concat cs)).
      assert (Hc : c = []) by (apply blen_nil_inv; lia).
      assert (Hcs : concat cs = []) by (apply blen_nil_inv; lia).
      subst c. cbn. rewrite (drain_empty src cs Hcs). rewrite Hcs, app_nil_r in *.
      rewrite Hh, Z.eqb_refl. reflexivity.
    + apply Z.leb_gt in E. rewrite blen_app in Hl. pose proof (blen_nonneg (concat cs)).
      destruct (rem <? blen c) eqn:E2; [apply Z.ltb_lt in E2; lia|].
      rewrite app_assoc. apply IH; [lia|]. rewrite <- app_assoc. exact Hh.
Qed.

Lemma to_byte_slice_inl src d maxsz s x : 0 <= d_size d ->
  to_byte_slice hashf src d maxsz s = inl x ->
  snd s = REof /\ x = concat (fst s) /\ valid hashf d x = true.
Proof.
  unfold to_byte_slice. intros Hs H. destruct (maxsz <? d_size d); [discriminate|].
  apply vconsume_inl in H; [|exact Hs]. destruct H as (Hr & -> & Hl & Hh). cbn in *.
  repeat split; try assumption. unfold valid. rewrite Hl, Hh, !Z.eqb_refl. reflexivity.
Qed.

Lemma to_byte_slice_complete src d maxsz cs x :
  d_size d <= maxsz -> concat cs = x -> valid hashf d x = true ->
  to_byte_slice hashf src d maxsz (cs, REof) = inl x.
Proof.
  unfold to_byte_slice, valid. intros Hm <- Hv. apply andb_prop in Hv as [H1 H2].
  apply Z.eqb_eq in H1. apply Z.eqb_eq in H2.
  destruct (maxsz <? d_size d) eqn:E; [apply Z.ltb_lt in E; lia|]. cbn [fst snd].
  apply (vconsume_complete src d cs (d_size d) []); cbn; assumption.
Qed.

Lemma id_recv_eof ms : forall woff fin t cs,
  id_recv woff fin ms t = (cs, REof) ->
  t = TEof /\ contiguous woff ms /\ fin_ok fin ms /\ cs = map w_data ms.
Proof.
  induction ms as [|m ms IH]; intros woff fin t cs H; cbn in H.
  - injection H as <- H. destruct t; [|discriminate]. destruct fin; [|discriminate]. cbn. auto.
  - destruct fin; [discriminate|]. destruct (w_off m =? woff) eqn:E; cbn in H; [|discriminate].
    destruct (id_recv (woff + blen (w_data m)) (w_fin m) ms t) as [cs' r] eqn:Hr.
    injection H as <- ->. apply IH in Hr as (-> & Hc & Hf & ->). apply Z.eqb_eq in E. cbn. auto.
Qed.

Lemma id_recv_complete ms : forall woff fin,
  contiguous woff ms -> fin_ok fin ms -> id_recv woff fin ms TEof = (map w_data ms, REof).
Proof.
  induction ms as [|m ms IH]; intros woff fin Hc Hf; cbn in *.
  - subst fin. reflexivity.
  - destruct Hc as [<- Hc], Hf as [-> Hf]. rewrite Z.eqb_refl. cbn. rewrite (IH _ _ Hc Hf). reflexivity.
Qed.

Theorem write_identity_stores_only_if pm d ms t x :
  0 <= d_size d ->
  wr_stored (write hashf decompress pm (RIdentity d) ms t) = Some x ->
  contiguous 0 ms /\ finished_at_end ms /\ t = TEof /\ x = payload ms /\ valid hashf d x = true
  /\ wr_code (write hashf decompress pm (RIdentity d) ms t) = 0.
Proof.
  intros Hs. unfold write. destruct ms as [|first rest]; [destruct t; discriminate|].
  unfold write_identity. destruct (w_off first =? 0) eqn:E0; cbn [negb]; [|discriminate].
  destruct (pm =? 0); cbn [negb]; [|discriminate].
  destruct (id_recv (blen (w_data first)) (w_fin first) rest t) as [cs r] eqn:Hr.
  destruct (to_byte_slice hashf cInvalidArgument d backend_max _) as [y|c] eqn:Hb; [|discriminate].
  cbn. intros H. injection H as <-. apply to_byte_slice_inl in Hb; [|exact Hs]. cbn [fst snd] in Hb.
  destruct Hb as (-> & Hy & Hv). apply id_recv_eof in Hr as (-> & Hc & Hf & ->).
  apply Z.eqb_eq in E0. repeat split; try assumption.
  - apply fin_ok_finished, Hf.
  - rewrite Hy. apply concat_skip_empty.
Qed.

Lemma z_recv_eof ms : forall noff fin t b n,
  z_recv noff fin ms t = (b, REof, n) ->
  exists pre post, ms = pre ++ post /\ contiguous noff pre /\ fin_ok fin pre
                   /\ b = payload pre /\ n = noff + blen b.
Proof.
  induction ms as [|m ms IH]; intros noff fin t b n H.
  - cbn in H. destruct fin.
    + injection H as <- <-. exists [], []. cbn. repeat split; auto; lia.
    + destruct t; discriminate.
  - cbn in H. destruct fin.
    + injection H as <- <-. exists [], (m :: ms). cbn. repeat split; auto; lia.
    + destruct (w_off m =? noff) eqn:E; cbn in H; [|discriminate].
      destruct (z_recv (noff + blen (w_data m)) (w_fin m) ms t) as [[b' r] n'] eqn:Hr.
      injection H as <- -> <-. apply IH in Hr as (pre & post & -> & Hc & Hf & -> & ->).
      apply Z.eqb_eq in E. exists (m :: pre), post. unfold payload. cbn. rewrite blen_app. repeat split; auto. lia.
Qed.

Lemma z_recv_complete ms : forall noff fin,
  contiguous noff ms -> fin_ok fin ms ->
  z_recv noff fin ms TEof = (payload ms, REof, noff + blen (payload ms)).
Proof.
  induction ms as [|m ms IH]; intros noff fin Hc Hf; cbn in *.
  - subst fin. unfold payload. cbn. rewrite Z.add_0_r. reflexivity.
  - destruct Hc as [<- Hc], Hf as [-> Hf]. rewrite Z.eqb_refl. cbn [negb]. rewrite (IH _ _ Hc Hf).
    unfold payload. cbn [map concat]. rewrite blen_app. f_equal. lia.
Qed.

Theorem write_zstd_stores_only_if pm d ms t x :
  wr_stored (write hashf decompress pm (RZstd d) ms t) = Some x ->
  exists pre post, ms = pre ++ post /\ contiguous 0 pre /\ finished_at_end pre
    /\ decoded (decompress (payload pre)) = Some x /\ valid hashf d x = true.
Proof.
  unfold write. destruct ms as [|first rest]; [destruct t; discriminate|].
  unfold write_zstd. destruct (w_off first =? 0) eqn:E0; cbn [negb]; [|discriminate].
  destruct (pm =? 0); cbn [negb]; [|discriminate].
  destruct (backend_max <? d_size d); [discriminate|].
  destruct (z_recv (blen (w_data first)) (w_fin first) rest t) as [[b r] n] eqn:Hr.
  destruct r; [|discriminate].
  apply z_recv_eof in Hr as (pre & post & -> & Hc & Hf & -> & ->).
  apply Z.eqb_eq in E0.
  assert (Hp : w_data first ++ payload pre = payload (first :: pre)) by reflexivity.
  rewrite Hp. intros H. exists (first :: pre), post. split; [reflexivity|].
  split; [cbn; auto|]. split; [apply fin_ok_finished, Hf|].
  destruct (decompress (payload (first :: pre))) as [y|y|] eqn:Hd; cbn in *.
  - destruct (valid hashf d y) eqn:Hv; [|discriminate]. injection H as <-. auto.
  - destruct (valid hashf d y) eqn:Hv.
    + injection H as <-. auto.
    + destruct (blen y <? d_size d); discriminate.
  - discriminate.
Qed.

Lemma id_recv_err t ms : forall woff fin cs c,
  id_recv woff fin ms t = (cs, RErr c) -> c = cInvalidArgument \/ t = TErr c.
Proof.
  induction ms as [|m ms IH]; intros woff fin cs c; cbn [id_recv].
  - destruct t as [|c']; [destruct fin|]; intro H; inversion H; auto.
  - destruct fin; [intro H; inversion H; auto|].
    destruct (negb (w_off m =? woff)); [intro H; inversion H; auto|].
    destruct (id_recv (woff + blen (w_data m)) (w_fin m) ms t) as [cs' r'] eqn:E.
    intro H. inversion H. subst. exact (IH _ _ _ _ E).
Qed.

Lemma z_recv_err t ms : forall noff fin b n c,
  z_recv noff fin ms t = (b, RErr c, n) -> c = cInvalidArgument \/ t = TErr c.
Proof.
  induction ms as [|m ms IH]; intros noff fin b n c; cbn [z_recv].
  - destruct fin; [discriminate|]. destruct t as [|c']; intro H; inversion H; auto.
  - destruct fin; [discriminate|].
    destruct (negb (w_off m =? noff)); [intro H; inversion H; auto|].
    destruct (z_recv (noff + blen (w_data m)) (w_fin m) ms t) as [[b' r'] n'] eqn:E.
    intro H. inversion H. subst. exact (IH _ _ _ _ _ E).
Qed.

Definition fail_code (pm : Z) (rn : rname) (t : term) (c : Z) : Prop :=
  c = cInvalidArgument \/ c = cUnimplemented \/ c = cUnknown
  \/ (c = pm /\ pm <> 0) \/ t = TErr c \/ rn = RBad c.

Lemma fail_code_nz pm rn t c :
  fail_code pm rn t c ->
  (forall c', t = TErr c' -> c' <> 0) -> (forall c', rn = RBad c' -> c' <> 0) -> c <> 0.
Proof.
  intros [-> | [-> | [-> | [[-> H] | [E | E]]]]] Ht Hrn; try discriminate; eauto.
Qed.

Definition alt_code (a : Z) : bool := (a =? cUnknown) || (a =? cInvalidArgument).

Inductive write_ends (pm : Z) (rn : rname) (t : term) : wres -> Prop :=
| ends_failed c alts :
    fail_code pm rn t c -> forallb alt_code alts = true ->
    write_ends pm rn t (mkWres c alts 0 None)
| ends_stored d alts n x :
    rn = RIdentity d \/ rn = RZstd d -> d_size d <= backend_max -> forallb alt_code alts = true ->
    write_ends pm rn t (mkWres 0 alts n (Some x)).

Lemma ends_wfail pm rn t c : fail_code pm rn t c -> write_ends pm rn t (wfail c).
Proof. intro H. exact (ends_failed _ _ _ c [] H eq_refl). Qed.

Lemma write_outcome pm rn ms t : write_ends pm rn t (write hashf decompress pm rn ms t).
Proof.
  assert (Hpm : (pm =? 0) = false -> fail_code pm rn t pm).
  { intro E. right. right. right. left. split; [reflexivity|apply Z.eqb_neq, E]. }
  unfold write. destruct ms as [|first rest].
  { destruct t; apply ends_wfail; unfold fail_code; auto 6. }
  destruct rn as [d|d| |c]; [| |apply ends_wfail; unfold fail_code; auto 6 ..].
  - unfold write_identity. destruct (negb (w_off first =? 0)); [apply ends_wfail; left; reflexivity|].
    destruct (pm =? 0) eqn:Ep; cbn [negb]; [|apply ends_wfail, Hpm, eq_refl].
    destruct (id_recv (blen (w_data first)) (w_fin first) rest t) as [cs r] eqn:Er.
    unfold to_byte_slice. destruct (backend_max <? d_size d) eqn:Em; [apply ends_wfail; left; reflexivity|].
    cbn [fst snd]. destruct (vconsume _ _ _ _ _ _ _) as [y|c] eqn:Hb.
    + apply (ends_stored _ _ _ d); [auto|apply Z.ltb_ge, Em|reflexivity].
    + apply ends_wfail. destruct (vconsume_inr _ _ _ _ _ _ _ Hb) as [-> | ->]; [left; reflexivity|].
      destruct (id_recv_err _ _ _ _ _ _ Er) as [-> | E]; unfold fail_code; auto 6.
  - unfold write_zstd. destruct (negb (w_off first =? 0)); [apply ends_wfail; left; reflexivity|].
    destruct (pm =? 0) eqn:Ep; cbn [negb]; [|apply ends_wfail, Hpm, eq_refl].
    destruct (backend_max <? d_size d) eqn:Em; [apply ends_wfail; left; reflexivity|].
    apply Z.ltb_ge in Em.
    destruct (z_recv (blen (w_data first)) (w_fin first) rest t) as [[b r] n] eqn:Er.
    destruct r as [|e].
    + destruct (decompress (w_data first ++ b)) as [y|y|].
      * destruct (valid hashf d y); [apply (ends_stored _ _ _ d); auto|apply ends_wfail; left; reflexivity].
      * destruct (valid hashf d y); [apply (ends_stored _ _ _ d); auto|].
        destruct (blen y <? d_size d); apply ends_failed; unfold fail_code; auto.
      * apply ends_failed; unfold fail_code; auto.
    + apply ends_failed; [|reflexivity].
      destruct (z_recv_err _ _ _ _ _ _ _ Er) as [-> | E]; unfold fail_code; auto 6.
Qed.

(** Nothing becomes visible unless the RPC succeeds. *)
Theorem write_failure_stores_nothing pm rn ms t :
  wr_code (write hashf decompress pm rn ms t) <> 0 ->
  wr_stored (write hashf decompress pm rn ms t) = None.
Proof.
  destruct (write_outcome pm rn ms t) as [c alts _ _|d alts n x _ _ _]; cbn [wr_code wr_stored]; [reflexivity|].
  intro H. destruct H. reflexivity.
Qed.

(** A write that answers OK has stored something (no failure carries code 0). *)
Lemma write_ok_stores pm rn ms t :
  (forall c, t = TErr c -> c <> 0) -> (forall c, rn = RBad c -> c <> 0) ->
  wr_code (write hashf decompress pm rn ms t) = 0 ->
  wr_stored (write hashf decompress pm rn ms t) <> None.
Proof.
  intros Ht Hrn. destruct (write_outcome pm rn ms t) as [c alts Hc _|]; cbn [wr_code wr_stored]; [|discriminate].
  intro E. contradiction (fail_code_nz _ _ _ _ Hc Ht Hrn E).
Qed.

Theorem write_oversized_fails pm rn d ms :
  rn = RIdentity d \/ rn = RZstd d -> backend_max < d_size d ->
  wr_code (write hashf decompress pm rn ms TEof) <> 0.
Proof.
  intros Hrn Hd. destruct (write_outcome pm rn ms TEof) as [c alts Hc _|d' alts n x Hd' Hm _]; cbn [wr_code].
  - apply (fail_code_nz _ _ _ _ Hc); [discriminate|]. destruct Hrn as [-> | ->]; discriminate.
  - exfalso. destruct Hrn as [-> | ->], Hd' as [E|E]; inversion E; subst; lia.
Qed.

(** The alternative outcomes of [wr_alts] are failures as well: whenever the
    model admits alternatives, they are UNKNOWN or INVALID_ARGUMENT. *)
Lemma write_alternatives pm rn ms t c :
  In c (wr_alts (write hashf decompress pm rn ms t)) -> c = cUnknown \/ c = cInvalidArgument.
Proof.
  assert (H : forall alts, forallb alt_code alts = true -> In c alts -> c = cUnknown \/ c = cInvalidArgument).
  { intros alts Ha Hin. rewrite forallb_forall in Ha. apply Ha, orb_prop in Hin.
    destruct Hin as [E|E]; apply Z.eqb_eq in E; auto. }
  destruct (write_outcome pm rn ms t) as [c' alts _ Ha|d alts n x _ _ Ha]; cbn [wr_alts]; exact (H _ Ha).
Qed.

Theorem write_alternatives_are_failures pm rn ms t c :
  In c (wr_alts (write hashf decompress pm rn ms t)) -> c <> 0.
Proof. intro H. destruct (write_alternatives _ _ _ _ _ H) as [-> | ->]; discriminate. Qed.

Lemma chunks_fuel_concat n : (0 < n)%nat -> forall fuel x, (length x <= fuel)%nat ->
  concat (chunks_fuel fuel n x) = x.
Proof.
  intros Hn. induction fuel as [|f IH]; intros x Hl.
  - destruct x; [reflexivity|cbn in Hl; lia].
  - destruct x as [|a x]; [reflexivity|]. cbn [chunks_fuel concat].
    rewrite IH; [apply firstn_skipn|]. rewrite skipn_length. cbn [length] in *. lia.
Qed.

Lemma chunks_of_concat n x : (0 < n)%nat -> concat (chunks_of n x) = x.
Proof. intros Hn. apply chunks_fuel_concat; [exact Hn|apply le_n]. Qed.

Lemma chunks_fuel_bounds n : (0 < n)%nat -> forall fuel x c, In c (chunks_fuel fuel n x) ->
  (0 < length c <= n)%nat.
Proof.
  intros Hn. induction fuel as [|f IH]; intros x c H; [destruct H|].
  destruct x as [|a x]; [destruct H|]. cbn [chunks_fuel] in H. destruct H as [<-|H]; [|eapply IH, H].
  rewrite firstn_length. cbn [length]. lia.
Qed.

Lemma cut_concat ps : forall x, concat (cut ps x) = x.
Proof.
  induction ps as [|p ps IH]; intros x; destruct x as [|a x]; try reflexivity.
  - cbn. rewrite app_nil_r. reflexivity.
  - cbn [cut concat]. rewrite IH. apply firstn_skipn.
Qed.

Lemma firstn_concat_prefix {A} j (cs : list (list A)) :
  exists rest, concat cs = concat (firstn j cs) ++ rest.
Proof.
  exists (concat (skipn j cs)). rewrite <- concat_app, firstn_skipn. reflexivity.
Qed.

Lemma apply_sendfail_cases sf cs c msgs :
  apply_sendfail sf cs = (c, msgs) ->
  (c = 0 /\ msgs = cs) \/ (exists j, sf = Some (j, c) /\ msgs = firstn j cs).
Proof.
  unfold apply_sendfail. destruct sf as [[j fc]|]; [destruct (Nat.ltb j (length cs))|];
    intro H; inversion H; subst; eauto.
Qed.

Lemma apply_sendfail_prefix sf cs :
  exists rest, concat cs = concat (snd (apply_sendfail sf cs)) ++ rest.
Proof.
  unfold apply_sendfail. destruct sf as [[j c]|]; [match goal with |- context [if ?b then _ else _] => destruct b end|]; cbn [snd].
  - apply firstn_concat_prefix.
  - exists []. rewrite app_nil_r. reflexivity.
  - exists []. rewrite app_nil_r. reflexivity.
Qed.

Lemma offset_ok_iff content k : offset_ok content k = true <-> 0 <= k <= blen content.
Proof. unfold offset_ok. rewrite andb_true_iff, !Z.leb_le. reflexivity. Qed.

Theorem read_identity_exact_suffix d get content k chunk pieces :
  get d = inl content -> (0 < chunk)%nat -> 0 <= k <= blen content ->
  exists msgs, read compress (RIdentity d) 0 get k chunk pieces None = (0, msgs)
               /\ concat msgs = skipn (Z.to_nat k) content
               /\ forall m, In m msgs -> (0 < length m <= chunk)%nat.
Proof.
  intros Hg Hc Hk. unfold read, read_identity. cbn. rewrite Hg, (proj2 (offset_ok_iff _ _) Hk).
  eexists. split; [reflexivity|]. split; [apply chunks_of_concat, Hc|].
  intros m. apply chunks_fuel_bounds, Hc.
Qed.

Theorem read_zstd_exact_suffix d get content k chunk pieces :
  (forall x, decompress (compress x) = DOk x) ->
  get d = inl content -> 0 <= k <= blen content ->
  exists msgs, read compress (RZstd d) 0 get k chunk pieces None = (0, msgs)
               /\ decompress (concat msgs) = DOk (skipn (Z.to_nat k) content).
Proof.
  intros Hrt Hg Hk. unfold read, read_zstd. cbn. rewrite Hg, (proj2 (offset_ok_iff _ _) Hk).
  eexists. split; [reflexivity|]. rewrite cut_concat. apply Hrt.
Qed.

Theorem read_bad_offset_no_data rn d get content k chunk pieces sf :
  rn = RIdentity d \/ rn = RZstd d ->
  get d = inl content -> ~ (0 <= k <= blen content) ->
  read compress rn 0 get k chunk pieces sf = (cInvalidArgument, []).
Proof.
  intros Hrn Hg Hk. unfold read, read_identity, read_zstd. cbn.
  destruct (offset_ok content k) eqn:Ho; [apply offset_ok_iff in Ho; contradiction|].
  destruct Hrn as [-> | ->]; rewrite Hg, Ho; reflexivity.
Qed.

Theorem read_backend_error_no_data rn d get c k chunk pieces sf :
  rn = RIdentity d \/ rn = RZstd d ->
  get d = inr c ->
  read compress rn 0 get k chunk pieces sf = (c, []).
Proof.
  intros Hrn Hg. unfold read, read_identity, read_zstd. cbn.
  destruct Hrn as [-> | ->]; rewrite Hg; reflexivity.
Qed.

(** Whatever the name, the limit and the point at which sending fails: what
    was sent is a prefix of the (compressed) suffix — never bytes from elsewhere. *)
Theorem read_sends_prefix_of_suffix rn limit get k chunk pieces sf :
  (0 < chunk)%nat ->
  let msgs := snd (read compress rn limit get k chunk pieces sf) in
  msgs = [] \/
  exists d content rest, get d = inl content /\ 0 <= k <= blen content /\
    ((rn = RIdentity d /\ skipn (Z.to_nat k) content = concat msgs ++ rest) \/
     (rn = RZstd d /\ compress (skipn (Z.to_nat k) content) = concat msgs ++ rest)).
Proof.
  intros Hc. cbv zeta. unfold read. destruct (negb (limit =? 0)); [left; reflexivity|].
  destruct rn as [d|d| |c]; try (left; reflexivity).
  - unfold read_identity. destruct (get d) as [content|c] eqn:Hg; [|left; reflexivity].
    destruct (offset_ok content k) eqn:Ho; [|left; reflexivity].
    apply offset_ok_iff in Ho.
    right. destruct (apply_sendfail_prefix sf (chunks_of chunk (skipn (Z.to_nat k) content))) as [rest Hr].
    rewrite chunks_of_concat in Hr by exact Hc.
    exists d, content, rest. split; [exact Hg|]. split; [exact Ho|]. left. split; [reflexivity|exact Hr].
  - unfold read_zstd. destruct (get d) as [content|c] eqn:Hg; [|left; reflexivity].
    destruct (offset_ok content k) eqn:Ho; [|left; reflexivity].
    apply offset_ok_iff in Ho.
    right. destruct (apply_sendfail_prefix sf (cut pieces (compress (skipn (Z.to_nat k) content)))) as [rest Hr].
    rewrite cut_concat in Hr.
    exists d, content, rest. split; [exact Hg|]. split; [exact Ho|]. right. split; [reflexivity|exact Hr].
Qed.

End WithHash.
