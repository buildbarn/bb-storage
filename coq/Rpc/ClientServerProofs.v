(** C14 — the repository's client composed with the server behaves like the backend. *)
From Coq Require Import List ZArith Bool Lia.
From BBS Require Import Rpc.ByteStream Rpc.Batch Rpc.ClientServer Rpc.ByteStreamProofs.
Import ListNotations.
Open Scope Z_scope.

Lemma contiguous_app a : forall off b,
  contiguous off (a ++ b) <-> contiguous off a /\ contiguous (off + blen (payload a)) b.
Proof.
  induction a as [|m a IH]; intros off b; cbn.
  - unfold payload. cbn. rewrite Z.add_0_r. tauto.
  - rewrite IH. unfold payload. cbn. rewrite blen_app, Z.add_assoc. tauto.
Qed.

Lemma with_offsets_spec cs : forall off,
  contiguous off (with_offsets off cs) /\ payload (with_offsets off cs) = concat cs
  /\ Forall (fun m => w_fin m = false) (with_offsets off cs).
Proof.
  induction cs as [|c cs IH]; intros off; cbn.
  - repeat split. constructor.
  - destruct (IH (off + blen c)) as (H1 & H2 & H3). unfold payload in *. cbn. rewrite H2.
    repeat split; auto.
Qed.

Lemma client_msgs_spec cs :
  contiguous 0 (client_msgs cs) /\ finished_at_end (client_msgs cs) /\ payload (client_msgs cs) = concat cs.
Proof.
  unfold client_msgs. destruct (with_offsets_spec cs 0) as (H1 & H2 & H3). repeat split.
  - apply contiguous_app. split; [exact H1|]. cbn. rewrite H2. unfold total_len. auto.
  - exists (with_offsets 0 cs), (mkW (total_len cs) [] true). auto.
  - unfold payload in *. rewrite map_app, concat_app, H2. cbn. apply app_nil_r.
Qed.

Section WithCodec.
Variable hashf : bytes -> Z.
Variable decompress : bytes -> dres.
Variable compress : bytes -> bytes.

(** The converses of [write_*_stores_only_if]: a well-formed upload is stored. *)
Theorem write_identity_stores_if d ms :
  contiguous 0 ms -> finished_at_end ms -> valid hashf d (payload ms) = true -> d_size d <= backend_max ->
  write hashf decompress 0 (RIdentity d) ms TEof = mkWres 0 [] (d_size d) (Some (payload ms)).
Proof.
  intros Hc Hf Hv Hm. apply finished_fin_ok in Hf. destruct ms as [|first rest]; [cbn in Hf; discriminate|].
  cbn in Hc, Hf. destruct Hc as [H0 Hc], Hf as [_ Hf].
  unfold write, write_identity. rewrite H0. cbn [Z.eqb negb].
  rewrite (id_recv_complete rest _ _ Hc Hf).
  rewrite (to_byte_slice_complete hashf _ d _ _ (payload (first :: rest)) Hm (concat_skip_empty _ _) Hv).
  reflexivity.
Qed.

Theorem write_zstd_stores_if d ms x :
  contiguous 0 ms -> finished_at_end ms -> decompress (payload ms) = DOk x ->
  valid hashf d x = true -> d_size d <= backend_max ->
  write hashf decompress 0 (RZstd d) ms TEof = mkWres 0 [] (blen (payload ms)) (Some x).
Proof.
  intros Hc Hf Hd Hv Hm. apply finished_fin_ok in Hf. destruct ms as [|first rest]; [cbn in Hf; discriminate|].
  cbn in Hc, Hf. destruct Hc as [H0 Hc], Hf as [_ Hf].
  unfold write, write_zstd. rewrite H0. cbn [Z.eqb negb].
  destruct (backend_max <? d_size d) eqn:E; [apply Z.ltb_lt in E; lia|].
  rewrite (z_recv_complete rest _ _ Hc Hf).
  assert (Hp : w_data first ++ payload rest = payload (first :: rest)) by reflexivity.
  rewrite Hp, Hd, Hv. f_equal. unfold payload. cbn [map concat]. rewrite blen_app. reflexivity.
Qed.

(** ** client_server_identity, uploads: for all data and all chunkings the
    server stores exactly the data (both compressors). *)
Theorem client_put_identity_stores chunk pieces d data :
  valid hashf d data = true -> (0 < chunk)%nat -> d_size d <= backend_max ->
  client_put hashf decompress compress false chunk pieces d data = mkWres 0 [] (d_size d) (Some data).
Proof.
  intros Hv Hc Hm. unfold client_put. rewrite Hv.
  destruct (client_msgs_spec (chunks_of chunk data)) as (H1 & H2 & H3).
  rewrite chunks_of_concat in H3 by exact Hc.
  rewrite (write_identity_stores_if d _ H1 H2) by (try rewrite H3; assumption).
  rewrite H3. reflexivity.
Qed.

Theorem client_put_oversized zstd chunk pieces d data :
  valid hashf d data = true -> backend_max < d_size d ->
  wr_code (client_put hashf decompress compress zstd chunk pieces d data) <> 0
  /\ wr_stored (client_put hashf decompress compress zstd chunk pieces d data) = None.
Proof.
  intros Hv Hd. unfold client_put. rewrite Hv.
  assert (H : forall rn ms, rn = RIdentity d \/ rn = RZstd d ->
            wr_code (write hashf decompress 0 rn ms TEof) <> 0
            /\ wr_stored (write hashf decompress 0 rn ms TEof) = None).
  { intros rn ms Hrn. pose proof (write_oversized_fails hashf decompress 0 rn d ms Hrn Hd) as Hc.
    split; [exact Hc|apply write_failure_stores_nothing, Hc]. }
  destruct zstd; apply H; auto.
Qed.

Hypothesis round_trip : forall x, decompress (compress x) = DOk x.

Theorem client_put_zstd_stores chunk pieces d data :
  valid hashf d data = true -> d_size d <= backend_max ->
  client_put hashf decompress compress true chunk pieces d data
  = mkWres 0 [] (blen (compress data)) (Some data).
Proof.
  intros Hv Hm. unfold client_put. rewrite Hv.
  destruct (client_msgs_spec (cut pieces (compress data))) as (H1 & H2 & H3).
  rewrite cut_concat in H3.
  rewrite (write_zstd_stores_if d _ data H1 H2) by (try rewrite H3; auto).
  rewrite H3. reflexivity.
Qed.

(** A Put whose data does not match its digest fails and stores nothing
    that does not match: whatever the server keeps is valid for the digest. *)
Theorem client_put_invalid zstd chunk pieces d data x :
  0 <= d_size d ->
  valid hashf d data = false ->
  wr_code (client_put hashf decompress compress zstd chunk pieces d data) <> 0 /\
  (wr_stored (client_put hashf decompress compress zstd chunk pieces d data) = Some x -> valid hashf d x = true).
Proof.
  intros Hs Hv. unfold client_put. rewrite Hv. cbn [wr_code wr_stored]. split; [discriminate|].
  destruct zstd.
  - intros H. apply write_zstd_stores_only_if in H. destruct H as (pre & post & _ & _ & _ & _ & H). exact H.
  - cbn. discriminate.
Qed.

(** ** client_server_identity, downloads: the client returns the backend's bytes. *)
Theorem client_get_identity_returns chunk sp cp get d content :
  get d = inl content -> valid hashf d content = true -> (0 < chunk)%nat -> d_size d <= backend_max ->
  client_get hashf decompress compress false chunk sp cp get d = inl content.
Proof.
  intros Hg Hv Hc Hm. unfold client_get.
  destruct (read_identity_exact_suffix compress d get content 0 chunk sp Hg Hc) as (msgs & Hr & Hcat & _).
  { pose proof (blen_nonneg content). lia. }
  rewrite Hr. cbn [client_script Z.eqb]. cbn in Hcat.
  rewrite (to_byte_slice_complete hashf _ d _ _ content Hm Hcat Hv). reflexivity.
Qed.

Theorem client_get_zstd_returns chunk sp cp get d content :
  get d = inl content -> valid hashf d content = true -> d_size d <= backend_max ->
  client_get hashf decompress compress true chunk sp cp get d = inl content.
Proof.
  intros Hg Hv Hm. unfold client_get.
  destruct (read_zstd_exact_suffix decompress compress d get content 0 chunk sp round_trip Hg) as (msgs & Hr & Hd).
  { pose proof (blen_nonneg content). lia. }
  rewrite Hr. cbn in Hd. cbn [client_script]. rewrite Hd.
  rewrite (to_byte_slice_complete hashf _ d _ _ content Hm (cut_concat _ _) Hv). reflexivity.
Qed.

(** The backend's error reaches the caller unchanged. *)
Theorem client_get_error zstd chunk sp cp get d c :
  get d = inr c -> c <> 0 -> d_size d <= backend_max ->
  client_get hashf decompress compress zstd chunk sp cp get d = inr c.
Proof.
  intros Hg Hc Hm. unfold client_get.
  rewrite (read_backend_error_no_data compress (if zstd then RZstd d else RIdentity d) d get c 0 chunk sp None)
    by (try (destruct zstd; auto); exact Hg).
  assert (Hs : client_script decompress zstd chunk cp (c, []) = ([], RErr c)).
  { unfold client_script. destruct zstd.
    - destruct c; [contradiction| |]; reflexivity.
    - destruct (c =? 0) eqn:E; [apply Z.eqb_eq in E; contradiction|reflexivity]. }
  rewrite Hs. unfold to_byte_slice. destruct (backend_max <? d_size d) eqn:E; [apply Z.ltb_lt in E; lia|].
  cbn. destruct (d_size d <=? 0); reflexivity.
Qed.

Theorem client_get_validating zstd chunk sp cp get held d :
  get d = backend_get hashf held d -> (0 < chunk)%nat -> d_size d <= backend_max ->
  client_get hashf decompress compress zstd chunk sp cp get d = backend_get hashf held d.
Proof.
  intros Hg Hc Hm. destruct (backend_get hashf held d) as [y|c] eqn:Eg.
  - assert (Hv : valid hashf d y = true).
    { unfold backend_get in Eg. destruct held as [y'|]; [|discriminate].
      destruct (valid hashf d y') eqn:Hv; inversion Eg. subst. exact Hv. }
    destruct zstd; [apply client_get_zstd_returns|apply client_get_identity_returns]; assumption.
  - apply client_get_error; [exact Hg| |exact Hm].
    unfold backend_get in Eg. destruct held as [y'|]; [destruct (valid hashf d y')|]; inversion Eg; discriminate.
Qed.

End WithCodec.
