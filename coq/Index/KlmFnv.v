(** The concrete slot function of HashingKeyLocationMap.getSlot:
    FNV-1a (64-bit, wrap-around explicit) over the key bytes followed by the
    attempt in little-endian order, started from the configured hash
    initialisation, modulo the number of records.  Constants are regenerated
    from location_record_key.go. *)
From Coq Require Import List NArith Arith Bool Lia.
From BBS Require Import Generated.Consts Index.Klm.
Import ListNotations.
Open Scope N_scope.

Definition mask64 : N := N.ones 64.
(** uint64 multiplication: the low 64 bits ([N.land x (N.ones 64) = x mod 2^64], N.land_ones). *)
Definition wrap64 (x : N) : N := N.land x mask64.
Definition fnv_step (prime h c : N) : N := wrap64 (N.lxor h c * prime).
Definition fnv1a (prime init : N) (bytes : list N) : N := fold_left (fnv_step prime) bytes init.

(** [attempt & 0xff], [attempt >>= 8], klm_attempt_bytes times (uint32). *)
Fixpoint le_bytes (n : nat) (x : N) : list N :=
  match n with
  | O => []
  | S n' => N.land x klm_attempt_mask :: le_bytes n' (N.shiftr x klm_attempt_shift)
  end.

Definition bkey := list N.   (* Key: 32 bytes *)
Fixpoint bkey_eqb (a b : bkey) : bool :=
  match a, b with
  | [], [] => true
  | x :: a', y :: b' => (x =? y) && bkey_eqb a' b'
  | _, _ => false
  end.

Definition lrk_hash (init : N) (k : bkey) (a : nat) : N :=
  fnv1a klm_fnv_prime (fnv1a klm_fnv_prime init k) (le_bytes klm_attempt_bytes (N.of_nat a mod 2 ^ 32)).

(** n = recordsCount (> 0, otherwise Go panics on the modulo). *)
Definition fnv_slot (init : N) (n : nat) (k : bkey) (a : nat) : nat :=
  N.to_nat (lrk_hash init k a mod N.of_nat n).

(** The same slot function tabulated for a finite list of keys (identified by
    their index in the list) and attempts 0..amax: what the judge runs, so that
    each hash is computed once per case. *)
Definition slot_table (init : N) (n : nat) (keys : list bkey) (amax : nat) : list (list nat) :=
  map (fun k => map (fnv_slot init n k) (seq 0 (S amax))) keys.
Definition tab_slot (tb : list (list nat)) (ki a : nat) : nat := nth a (nth ki tb []) 0%nat.

(** index of the first key with the same bytes (two indices may name one key) *)
Fixpoint first_index (keys : list bkey) (k : bkey) (i : nat) : nat :=
  match keys with
  | [] => i
  | k' :: t => if bkey_eqb k' k then i else first_index t k (S i)
  end.
Definition canon (keys : list bkey) (i : nat) : nat := first_index keys (nth i keys []) 0.
