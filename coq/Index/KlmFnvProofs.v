(** The real slot function and key test satisfy the two hypotheses of the C06
    theorems, [slot_lt] (for a non-empty array, [0 < n]) and [key_eqb_spec]. *)
From Coq Require Import List NArith Arith Bool Lia.
From BBS Require Import Index.KlmFnv.
Import ListNotations.

Lemma fnv_slot_lt (init : N) (n : nat) (k : bkey) (a : nat) : (0 < n)%nat -> (fnv_slot init n k a < n)%nat.
Proof.
  intros Hn. unfold fnv_slot.
  assert (H : (lrk_hash init k a mod N.of_nat n < N.of_nat n)%N) by (apply N.mod_lt; lia).
  lia.
Qed.

Lemma bkey_eqb_spec a : forall b, bkey_eqb a b = true <-> a = b.
Proof.
  induction a as [|x a IH]; intros [|y b]; cbn; split; intros H; try discriminate; try reflexivity.
  - apply andb_true_iff in H. destruct H as [H1 H2]. apply N.eqb_eq in H1. apply IH in H2. subst. reflexivity.
  - inversion H; subst. rewrite N.eqb_refl. cbn. apply IH. reflexivity.
Qed.
