(** C06 — the record-codec part of the monitor is silent on the model: the
    round trip returns key, attempt, offset and size unchanged as soon as the
    key has 32 bytes and attempt/offset/size fit their fields (epoch id and
    blocks-from-last may be anything: they are truncated on writing and are
    not part of what the monitor compares; key bytes may be anything). *)
From Coq Require Import List NArith ZArith Arith Bool Lia.
From BBS Require Import Common.Sx Common.SxFactsMA Generated.Consts Index.RecordCodec Index.RecordCodecProofs.
Import ListNotations.
Open Scope N_scope.

Definition codec_fits (r : drec) : Prop :=
  length (d_key r) = bdlra_key_bytes /\ d_att r < 2 ^ 32 /\ d_off r < 2 ^ 64 /\ d_size r < 2 ^ 64.

Lemma flip_at_beyond : forall l i, (length l <= i)%nat -> flip_at i l = l.
Proof.
  induction l as [|b t IH]; intros i Hi; [destruct i; reflexivity|]. destruct i as [|j]; cbn in Hi; [lia|].
  cbn [flip_at]. rewrite IH by lia. reflexivity.
Qed.

(** the monitor compares only when the two seeds are equal and no byte is damaged *)
Definition codec_compares (inp : sx) : bool :=
  (sx_N (sx_nth inp 7) =? sx_N (sx_nth inp 8)) && (bdlra_record_size <=? sx_nat (sx_nth inp 9))%nat.

Theorem codec_mon_model : forall inp,
  codec_compares inp = true -> length (d_key (dec_drec inp)) = bdlra_key_bytes ->
  codec_mon inp (codec_case inp)
  = if sx_eqb (enc_dres (Some (trunc_drec (dec_drec inp)))) (enc_dres (Some (dec_drec inp))) then [] else [8%Z].
Proof.
  intros inp E Hk. unfold codec_mon. cbv zeta. fold (codec_compares inp). rewrite E.
  unfold codec_compares in E. apply andb_true_iff in E. destruct E as [E1 E2].
  apply N.eqb_eq in E1. apply Nat.leb_le in E2.
  unfold codec_case. cbv zeta. unfold sx_nth at 1. cbn [sx_list nth].
  rewrite <- E1, flip_at_beyond by (rewrite encode_length by exact Hk; exact E2).
  rewrite decode_encode, N.eqb_refl by exact Hk. reflexivity.
Qed.

Theorem codec_mon_silent : forall inp,
  (codec_compares inp = true -> codec_fits (dec_drec inp)) -> codec_mon inp (codec_case inp) = [].
Proof.
  intros inp H. destruct (codec_compares inp) eqn:E.
  - destruct (H eq_refl) as (Hk & Ha & Ho & Hs). rewrite (codec_mon_model inp E Hk).
    unfold trunc_drec, enc_dres. cbn [d_key d_att d_off d_size].
    rewrite !N.mod_small by assumption. rewrite sx_eqb_refl. reflexivity.
  - unfold codec_mon. cbv zeta. fold (codec_compares inp). rewrite E. reflexivity.
Qed.
