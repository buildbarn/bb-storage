(** Model of pkg/blobstore/local/hashing_key_location_map.go over a
    LocationRecordArray (in_memory_location_record_array.go /
    block_device_backed_location_record_array.go), location.go and
    location_record_key.go.  Definitions only.

    Interface:
      [loc], [older], [klm], [klm_empty], [klm_get], [klm_put], [klm_release],
      [klm_grow], [lookup] (= location returned by Get), the abstraction
      [amap]/[amap_put]/[amap_get] and (in KlmFrame) [no_discard_newest_thm].

    Block numbers are ABSOLUTE (number of the block since the store was
    created); [lo] = number of blocks released so far, [hi] = number of blocks
    ever pushed.  The BlockReferenceResolver decides [lo <= blk < hi]. *)
From Coq Require Import List NArith Arith Bool Lia.
Import ListNotations.

(** location.go *)
Record loc := { blk : N; off : N; size : N }.

(** Location.IsOlder: strict, lexicographic on (block, offset); the size is
    not compared. *)
Definition older (a b : loc) : bool :=
  ((blk a <? blk b) || ((blk a =? blk b) && (off a <? off b)))%N.

Definition loc_eqb (a b : loc) : bool :=
  ((blk a =? blk b) && (off a =? off b) && (size a =? size b))%N.

(** What BlockReferenceToBlockIndex decides for a stored reference. *)
Definition valid (lo hi : N) (l : loc) : bool := ((lo <=? blk l) && (blk l <? hi))%N.

Fixpoint upd {A} (l : list A) (i : nat) (x : A) : list A :=
  match l, i with
  | [], _ => []
  | _ :: t, O => x :: t
  | h :: t, S j => h :: upd t j x
  end.

Section Klm.
  Variable key : Type.
  Variable key_eqb : key -> key -> bool.
  (** slot k a = LocationRecordKey{k, a}.Hash(init) % recordsCount; arbitrary here. *)
  Variable slot : key -> nat -> nat.
  Variable maxGet : nat.   (* maximumGetAttempts (uint32) *)
  Variable maxPut : nat.   (* maximumPutAttempts (int; <= 0 behaves as 0) *)

  (** LocationRecord: RecordKey{Key, Attempt} and Location. *)
  Record rec := { rkey : key; ratt : nat; rloc : loc }.
  Definition table := list (option rec).

  (** LocationRecordArray.Get: ErrLocationRecordInvalid = None. *)
  Definition read (lo hi : N) (t : table) (i : nat) : option rec :=
    match nth i t None with
    | Some r => if valid lo hi (rloc r) then Some r else None
    | None => None
    end.

  (** record.RecordKey == recordKey compares Key and Attempt. *)
  Definition rk_eqb (r : rec) (k : key) (a : nat) : bool := key_eqb (rkey r) k && Nat.eqb (ratt r) a.

  Definition bump (r : rec) : rec := {| rkey := rkey r; ratt := S (ratt r); rloc := rloc r |}.

  (** Get: result with the number of attempts observed by the histogram. *)
  Inductive gres :=
  | GFound (l : loc) (attempts : nat)
  | GNotFound (attempts : nat)
  | GTooMany.                       (* get_too_many_attempts_total, NotFound to the caller *)

  (** [fuel] = maxGet - 1 - a : the loop stops when a + 1 >= maxGet. *)
  Fixpoint get_loop (lo hi : N) (t : table) (k : key) (fuel a : nat) : gres :=
    match read lo hi t (slot k a) with
    | None => GNotFound (S a)
    | Some r =>
        if rk_eqb r k a then GFound (rloc r) (S a)
        else match fuel with
             | O => GTooMany
             | S f => get_loop lo hi t k f (S a)
             end
    end.
  Definition get (lo hi : N) (t : table) (k : key) : gres := get_loop lo hi t k (pred maxGet) 0.

  Definition lookup_of (g : gres) : option loc :=
    match g with GFound l _ => Some l | _ => None end.

  (** Put: outcomes = the Prometheus observations; [d] is the record dropped. *)
  Inductive pres :=
  | PInserted (it : nat)
  | PUpdated (it : nat)
  | PIgnoredOlder (it : nat)
  | PTooManyAttempts (it : nat) (d : rec)
  | PTooManyIterations (d : rec).

  Fixpoint put_loop (lo hi : N) (fuel it : nat) (t : table) (r : rec) : table * pres :=
    match fuel with
    | O => (t, PTooManyIterations r)
    | S f =>
        let s := slot (rkey r) (ratt r) in
        match read lo hi t s with
        | None => (upd t s (Some r), PInserted it)
        | Some o =>
            if rk_eqb o (rkey r) (ratt r) then
              if older (rloc o) (rloc r) then (upd t s (Some r), PUpdated it)
              else (t, PIgnoredOlder it)
            else
              let '(t', r') := if older (rloc o) (rloc r) then (upd t s (Some r), o) else (t, r) in
              let r'' := bump r' in
              if maxGet <=? ratt r'' then (t', PTooManyAttempts it r'')
              else put_loop lo hi f (S it) t' r''
        end
    end.
  Definition put (lo hi : N) (t : table) (k : key) (l : loc) : table * pres :=
    put_loop lo hi maxPut 1 t {| rkey := k; ratt := 0; rloc := l |}.

  Definition discarded (o : pres) : option rec :=
    match o with
    | PTooManyAttempts _ d => Some d
    | PTooManyIterations d => Some d
    | _ => None
    end.

  (** The index together with the block window. *)
  Record klm := { tbl : table; lo : N; hi : N }.
  Definition klm_empty (n : nat) (h : N) : klm := {| tbl := repeat None n; lo := 0; hi := h |}.
  Definition klm_get (s : klm) (k : key) : gres := get (lo s) (hi s) (tbl s) k.
  Definition lookup (s : klm) (k : key) : option loc := lookup_of (klm_get s k).
  Definition klm_put (s : klm) (k : key) (l : loc) : klm * pres :=
    let '(t', o) := put (lo s) (hi s) (tbl s) k l in
    ({| tbl := t'; lo := lo s; hi := hi s |}, o).
  (** BlockList.PopFront / PushBack as seen by the resolver. *)
  Definition klm_release (s : klm) : klm := {| tbl := tbl s; lo := N.succ (lo s); hi := hi s |}.
  Definition klm_grow (s : klm) : klm := {| tbl := tbl s; lo := lo s; hi := N.succ (hi s) |}.

  (** Histories.  A Put must name an existing block (BlockIndexToBlockReference:
      "It is invalid to call this function with a block index that is out of
      bounds"); PopFront needs a block. *)
  Inductive op :=
  | OPut (k : key) (l : loc)
  | OGet (k : key)
  | ORelease
  | OGrow.

  Definition step (s : klm) (o : op) : option klm :=
    match o with
    | OPut k l => if valid (lo s) (hi s) l then Some (fst (klm_put s k l)) else None
    | OGet _ => Some s
    | ORelease => if (lo s <? hi s)%N then Some (klm_release s) else None
    | OGrow => Some (klm_grow s)
    end.

  Fixpoint run (s : klm) (h : list op) : option klm :=
    match h with
    | [] => Some s
    | o :: h' => match step s o with Some s' => run s' h' | None => None end
    end.

  (** Discards reported while running a history (for [no_discard_newest_thm]). *)
  Fixpoint discards (s : klm) (h : list op) : list rec :=
    match h with
    | [] => []
    | o :: h' =>
        match step s o with
        | None => []
        | Some s' =>
            (match o with
             | OPut k l => match discarded (snd (klm_put s k l)) with Some d => [d] | None => [] end
             | _ => []
             end) ++ discards s' h'
        end
    end.

  (** Abstraction: a map key -> option loc holding the newest location stored
      (ties keep the earlier one, as IsOlder is strict); a lookup filters by
      validity. *)
  Definition amap := key -> option loc.
  Definition amap_empty : amap := fun _ => None.
  Definition amap_put (m : amap) (k : key) (l : loc) : amap :=
    fun k' => if key_eqb k' k
              then match m k' with
                   | Some l0 => if older l0 l then Some l else Some l0
                   | None => Some l
                   end
              else m k'.
  Definition amap_get (lo hi : N) (m : amap) (k : key) : option loc :=
    match m k with Some l => if valid lo hi l then Some l else None | None => None end.
  Fixpoint amap_run (m : amap) (h : list op) : amap :=
    match h with
    | [] => m
    | OPut k l :: h' => amap_run (amap_put m k l) h'
    | _ :: h' => amap_run m h'
    end.
End Klm.

Arguments rkey {key}. Arguments ratt {key}. Arguments rloc {key}.
Arguments tbl {key}. Arguments lo {key}. Arguments hi {key}.
Arguments discarded {key}.
Arguments OPut {key}. Arguments OGet {key}. Arguments ORelease {key}. Arguments OGrow {key}.
