(** C06 — histories of Index/Klm.v: appending an operation (what the run-time
    monitor of C06 sees step by step). *)
From Coq Require Import List NArith.
From BBS Require Import Index.Klm.
Import ListNotations.

Section MS.
  Variable key : Type.
  Variable key_eqb : key -> key -> bool.
  Variable slot : key -> nat -> nat.
  Variables maxGet maxPut : nat.

  Notation rec := (rec key).
  Notation klm := (klm key).
  Notation klm_put := (klm_put key key_eqb slot maxGet maxPut).
  Notation step := (step key key_eqb slot maxGet maxPut).
  Notation run := (run key key_eqb slot maxGet maxPut).
  Notation discards := (discards key key_eqb slot maxGet maxPut).

  Lemma run_app h : forall s o, run s (h ++ [o]) = match run s h with Some s1 => step s1 o | None => None end.
  Proof.
    induction h as [|x h IH]; intros s o; cbn [app Klm.run].
    - destruct (step s o); reflexivity.
    - destruct (step s x) as [s1|]; [apply IH|reflexivity].
  Qed.

  Definition step_discards (s : klm) (o : op key) : list rec :=
    match step s o with
    | None => []
    | Some _ => match o with
                | OPut k l => match discarded (snd (klm_put s k l)) with Some d => [d] | None => [] end
                | _ => []
                end
    end.

  Lemma discards_app h : forall s s1 o, run s h = Some s1 ->
    discards s (h ++ [o]) = discards s h ++ step_discards s1 o.
  Proof.
    induction h as [|x h IH]; intros s s1 o Hr; cbn [app Klm.run Klm.discards] in *.
    - injection Hr as <-. unfold step_discards. destruct (step s o); [|reflexivity].
      rewrite app_nil_r. reflexivity.
    - destruct (step s x) as [s2|]; [|discriminate]. rewrite (IH _ _ _ Hr), app_assoc. reflexivity.
  Qed.

  Lemma amap_run_app h : forall m o,
    amap_run key key_eqb m (h ++ [o])
    = match o with OPut k l => amap_put key key_eqb (amap_run key key_eqb m h) k l | _ => amap_run key key_eqb m h end.
  Proof.
    induction h as [|x h IH]; intros m o; cbn [app Klm.amap_run].
    - destruct o; reflexivity.
    - destruct x; apply IH.
  Qed.
End MS.
