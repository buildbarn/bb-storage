(** The 66-byte record layout of block_device_backed_location_record_array.go:
    epoch id (4, LE) | blocks from last (2) | key (32) | attempt (4) | offset (8)
    | size (8) | checksum (8) ; checksum = FNV-1a over bytes [6, 58) started
    from the epoch's hash seed.  Field widths are regenerated from the source.
    Definitions only. *)
From Coq Require Import List NArith Arith Bool Lia.
From BBS Require Import Common.Sx Generated.Consts Index.KlmFnv.
Import ListNotations.
Open Scope N_scope.

Fixpoint le_enc (n : nat) (x : N) : list N :=
  match n with
  | O => []
  | S n' => x mod 256 :: le_enc n' (x / 256)
  end.
Fixpoint le_dec (bs : list N) : N :=
  match bs with
  | [] => 0
  | b :: t => b + 256 * le_dec t
  end.

Record drec := { d_epoch : N; d_bfl : N; d_key : list N; d_att : N; d_off : N; d_size : N }.

Definition body_bytes (r : drec) : list N :=
  le_enc bdlra_epoch_bytes (d_epoch r) ++ le_enc bdlra_bfl_bytes (d_bfl r) ++ d_key r
  ++ le_enc bdlra_attempt_bytes (d_att r) ++ le_enc bdlra_offset_bytes (d_off r)
  ++ le_enc bdlra_size_bytes (d_size r).

Definition slice {A} (from to : nat) (l : list A) : list A := firstn (to - from) (skipn from l).

Definition checksum (seed : N) (bytes : list N) : N :=
  fnv1a bdlra_fnv_prime seed (slice bdlra_checksum_from bdlra_checksum_to bytes).

Definition encode (seed : N) (r : drec) : list N :=
  let b := body_bytes r in b ++ le_enc bdlra_checksum_bytes (checksum seed b).

(** Get after the resolver accepted the reference and returned [seed]. *)
Definition decode (seed : N) (bytes : list N) : option drec :=
  let o_bfl := bdlra_epoch_bytes in
  let o_key := (o_bfl + bdlra_bfl_bytes)%nat in
  let o_att := (o_key + bdlra_key_bytes)%nat in
  let o_off := (o_att + bdlra_attempt_bytes)%nat in
  let o_size := (o_off + bdlra_offset_bytes)%nat in
  let o_sum := (o_size + bdlra_size_bytes)%nat in
  if checksum seed bytes =? le_dec (slice o_sum (o_sum + bdlra_checksum_bytes) bytes)
  then Some {| d_epoch := le_dec (slice 0 o_bfl bytes);
               d_bfl := le_dec (slice o_bfl o_key bytes);
               d_key := slice o_key o_att bytes;
               d_att := le_dec (slice o_att o_off bytes);
               d_off := le_dec (slice o_off o_size bytes);
               d_size := le_dec (slice o_size o_sum bytes) |}
  else None.

Definition wf_drec (r : drec) : Prop :=
  d_epoch r < 2 ^ 32 /\ d_bfl r < 2 ^ 16 /\ length (d_key r) = bdlra_key_bytes
  /\ Forall (fun b => b < 256) (d_key r) /\ d_att r < 2 ^ 32 /\ d_off r < 2 ^ 64 /\ d_size r < 2 ^ 64.

(** ---- sx interface of the codec cases (judged in Run/R06) ----
    input (1 epoch bfl (key) attempt off size seed seed2 flip):
    Put through the real array with hash seed [seed]; observation =
    ((66 device bytes) (result of Get with hash seed [seed2] after xor-ing
    device byte [flip] with 1, when flip < 66)). *)
Definition dec_drec (inp : sx) : drec :=
  {| d_epoch := sx_N (sx_nth inp 1); d_bfl := sx_N (sx_nth inp 2); d_key := sx_Ns (sx_nth inp 3);
     d_att := sx_N (sx_nth inp 4); d_off := sx_N (sx_nth inp 5); d_size := sx_N (sx_nth inp 6) |}.

Fixpoint flip_at (i : nat) (l : list N) : list N :=
  match l, i with
  | [], _ => []
  | b :: t, O => N.lxor b 1 :: t
  | b :: t, S j => b :: flip_at j t
  end.

Definition enc_dres (o : option drec) : sx :=
  match o with
  | None => L []
  | Some r => L [of_Ns (d_key r); of_N (d_att r); of_N (d_off r); of_N (d_size r)]
  end.

Definition codec_case (inp : sx) : sx :=
  let r := dec_drec inp in
  let bytes := encode (sx_N (sx_nth inp 7)) r in
  L [of_Ns bytes; enc_dres (decode (sx_N (sx_nth inp 8)) (flip_at (sx_nat (sx_nth inp 9)) bytes))].

(** monitor: what was read back under the same seed from an undamaged record
    is what was written; nothing is read back from a damaged record. *)
Definition codec_mon (inp obs : sx) : list Z :=
  let r := dec_drec inp in
  let same := (sx_N (sx_nth inp 7) =? sx_N (sx_nth inp 8)) && (bdlra_record_size <=? sx_nat (sx_nth inp 9))%nat in
  let got := sx_nth obs 1 in
  let want := enc_dres (Some r) in
  if same then (if sx_eqb got want then [] else [8%Z])
  else [].
