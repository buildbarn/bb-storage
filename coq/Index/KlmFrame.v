(** Frame and refinement theorems for Index/Klm.v (arbitrary slot function):
    a lookup is the maximum of the key's candidate records; a Put changes the
    candidate sets only by adding the new record and dropping the reported
    discard; refinement to a map key -> newest valid location. *)
From Coq Require Import List NArith Arith Bool Lia.
From BBS Require Import Index.Klm Index.KlmProofs.
Import ListNotations.

Section Frame.
  Variable key : Type.
  Variable key_eqb : key -> key -> bool.
  Hypothesis key_eqb_spec : forall a b, key_eqb a b = true <-> a = b.
  Variable n : nat.
  Variable slot : key -> nat -> nat.
  Hypothesis slot_lt : forall k a, slot k a < n.
  Variables maxGet maxPut : nat.

  Notation rec := (rec key).
  Notation table := (table key).
  Notation read := (read key).
  Notation get_loop := (get_loop key key_eqb slot).
  Notation put_loop := (put_loop key key_eqb slot maxGet).
  Notation put := (put key key_eqb slot maxGet maxPut).
  Notation klm := (klm key).
  Notation lookup := (lookup key key_eqb slot maxGet).
  Notation klm_put := (klm_put key key_eqb slot maxGet maxPut).
  Notation step := (step key key_eqb slot maxGet maxPut).
  Notation run := (run key key_eqb slot maxGet maxPut).
  Notation discards := (discards key key_eqb slot maxGet maxPut).
  Notation bump := (bump key).
  Notation Inv := (Inv key n slot).
  Notation GeChain := (GeChain key slot).
  Notation Placed := (Placed key slot).
  Notation rk_eqb := (rk_eqb key key_eqb).
  Notation mk := (Build_rec key).
  Notation PutLoop := (PutLoop key key_eqb slot maxGet).

  Definition M : nat := Nat.max 1 maxGet.

  Definition tlookup (lo hi : N) (t : table) (k : key) : option loc :=
    lookup_of (get_loop lo hi t k (pred maxGet) 0).

  Definition cand (lo hi : N) (t : table) (k : key) (a : nat) (l : loc) : Prop :=
    read lo hi t (slot k a) = Some (mk k a l).

  Definition AttBound (t : table) : Prop := forall i r, nth i t None = Some r -> ratt r < M.
  Definition Strict (lo hi : N) (t : table) : Prop :=
    forall k a1 l1 a2 l2, cand lo hi t k a1 l1 -> cand lo hi t k a2 l2 -> a1 < a2 -> older l2 l1 = true.
  Definition Inv2 (lo hi : N) (t : table) : Prop := Inv lo hi t /\ Strict lo hi t /\ AttBound t.

  Lemma lt_maxGet_M x : x < maxGet -> x < M.
  Proof. intros H. exact (Nat.lt_le_trans _ _ _ H (Nat.le_max_r 1 maxGet)). Qed.

  Lemma rec_eta (r : rec) : r = mk (rkey r) (ratt r) (rloc r).
  Proof. destruct r; reflexivity. Qed.

  Lemma cand_of_read lo hi t i r :
    Placed t -> read lo hi t i = Some r -> cand lo hi t (rkey r) (ratt r) (rloc r).
  Proof.
    intros Hp R. unfold cand. pose proof R as R'. apply read_some in R'. destruct R' as [Rn _].
    rewrite (Hp _ _ Rn). rewrite R. f_equal. apply rec_eta.
  Qed.

  Lemma cand_upd lo hi t s c k a l :
    s < length t -> valid lo hi (rloc c) = true ->
    (cand lo hi (upd t s (Some c)) k a l <->
     (slot k a = s /\ c = mk k a l) \/ (slot k a <> s /\ cand lo hi t k a l)).
  Proof.
    intros Hs V. unfold cand. rewrite read_upd by assumption.
    destruct (Nat.eqb (slot k a) s) eqn:E.
    - apply Nat.eqb_eq in E. split.
      + intros H. injection H as ->. left. split; [assumption|reflexivity].
      + intros [[_ H]|[H _]]; [subst; reflexivity|contradiction].
    - apply Nat.eqb_neq in E. split.
      + intros H. right. split; assumption.
      + intros [[H _]|[_ H]]; [contradiction|assumption].
  Qed.

  Lemma cand_at_slot lo hi t k a l o :
    read lo hi t (slot k a) = Some o -> cand lo hi t k a l -> o = mk k a l.
  Proof. unfold cand. intros R C. rewrite R in C. injection C as ->. reflexivity. Qed.

  Lemma cand_fun lo hi t k a l l' : cand lo hi t k a l -> cand lo hi t k a l' -> l = l'.
  Proof. unfold cand. intros C C'. rewrite C in C'. injection C' as ->. reflexivity. Qed.

  Lemma cand_of_same lo hi t c q :
    Inv lo hi t -> read lo hi t (slot (rkey c) (ratt c)) = Some q -> rk_eqb q (rkey c) (ratt c) = true ->
    cand lo hi t (rkey c) (ratt c) (rloc q).
  Proof.
    intros [_ [Hp _]] R K. apply rk_eqb_spec in K; [|assumption]. destruct K as [K1 K2].
    pose proof (cand_of_read lo hi t _ q Hp R) as Cq. rewrite K1, K2 in Cq. exact Cq.
  Qed.

  Definition C3 lo hi (t : table) (c : rec) : Prop :=
    forall a l, cand lo hi t (rkey c) a l -> a < ratt c -> older (rloc c) l = true.
  Definition C4 lo hi (t : table) (c : rec) : Prop :=
    forall a l, cand lo hi t (rkey c) a l -> ratt c <= a -> older l (rloc c) = true.
  Definition LoopInv lo hi (t : table) (c : rec) (disp : bool) : Prop :=
    Inv2 lo hi t /\ valid lo hi (rloc c) = true /\ GeChain lo hi t (rkey c) (ratt c) (rloc c)
    /\ C3 lo hi t c /\ (disp = true -> C4 lo hi t c) /\ ratt c < M.

  Lemma place_inv2 lo hi t c disp :
    LoopInv lo hi t c disp ->
    (forall o, read lo hi t (slot (rkey c) (ratt c)) = Some o -> older (rloc o) (rloc c) = true) ->
    Inv2 lo hi (upd t (slot (rkey c) (ratt c)) (Some c)).
  Proof.
    intros [[HI [HS HA]] [V [G [H3 [_ HM]]]]] Hnew. set (s := slot (rkey c) (ratt c)) in *.
    assert (Hs : s < length t) by (destruct HI as [Hl _]; rewrite Hl; apply slot_lt).
    split; [apply inv_upd; auto|]. split.
    - intros k a1 l1 a2 l2 C1 C2 Hlt.
      apply cand_upd in C1; [|assumption|assumption]. apply cand_upd in C2; [|assumption|assumption].
      destruct C1 as [[E1 Q1]|[E1 C1]], C2 as [[E2 Q2]|[E2 C2]].
      + rewrite Q1 in Q2. injection Q2 as Ea _. rewrite Ea in Hlt. destruct (Nat.lt_irrefl _ Hlt).
      + (* c first, an old candidate further along: it is not newer than what c replaced *)
        destruct HI as [_ [_ [_ Ho]]].
        destruct (Ho _ _ C2 a1) as [r' [Hr' Hold]]; [exact Hlt|]. cbn [rkey ratt rloc] in Hr', Hold.
        rewrite E1 in Hr'. specialize (Hnew _ Hr'). rewrite Q1 in Hnew. exact (nolder_older_lt _ _ _ Hold Hnew).
      + rewrite Q2 in H3. exact (H3 _ _ C1 Hlt).
      + eapply HS; eassumption.
    - intros i r Hn. rewrite nth_upd in Hn by assumption. destruct (Nat.eqb i s).
      + injection Hn as <-. assumption.
      + eapply HA; eassumption.
  Qed.

  Lemma loop_swap lo hi t c disp o :
    LoopInv lo hi t c disp ->
    read lo hi t (slot (rkey c) (ratt c)) = Some o ->
    rk_eqb o (rkey c) (ratt c) = false -> older (rloc o) (rloc c) = true ->
    (maxGet <=? ratt (bump o)) = false ->
    LoopInv lo hi (upd t (slot (rkey c) (ratt c)) (Some c)) (bump o) true.
  Proof.
    intros HL R K O HG. set (s := slot (rkey c) (ratt c)) in *.
    pose proof (over_older key _ _ _ _ _ _ R O) as Hnew.
    assert (HI2 : Inv2 lo hi (upd t s (Some c))) by exact (place_inv2 _ _ _ _ _ HL Hnew).
    destruct HL as [[HI [HS HA]] [V [G [H3 [H4 HM]]]]].
    pose proof HI as [Hl [Hp _]].
    assert (Hs : s < length t) by (rewrite Hl; apply slot_lt).
    pose proof R as R'. apply read_some in R'. destruct R' as [Rn Rv].
    assert (Eo : slot (rkey o) (ratt o) = s) by (apply (Hp _ _ Rn)).
    assert (Co : cand lo hi t (rkey o) (ratt o) (rloc o)) by (eapply cand_of_read; eassumption).
    apply Nat.leb_gt in HG. cbn [Klm.bump ratt] in HG.
    split; [exact HI2|]. cbn [Klm.bump rkey ratt rloc]. split; [assumption|]. split; [|split; [|split]].
    - exact (gechain_displaced key n slot slot_lt lo hi t c o HI V R O).
    -
      intros a l Ca Ha. cbn [Klm.bump rkey ratt rloc] in Ca, Ha |- *. apply cand_upd in Ca; [|assumption|assumption].
      destruct Ca as [[E Q]|[E Ca]].
      + rewrite Q in O. exact O.
      + destruct (lt_S_cases _ _ Ha) as [Cx|Cx].
        * eapply HS; eassumption.
        * subst a. contradiction.
    -
      intros _ a l Ca Ha. cbn [Klm.bump rkey ratt rloc] in Ca, Ha |- *. apply cand_upd in Ca; [|assumption|assumption].
      destruct Ca as [[E Q]|[E Ca]].
      + (* c has the key of o and a larger attempt: then o sits on c's chain, so o is not older than c *)
        exfalso. rewrite Q in G, O. destruct (G (ratt o)) as [r' [Hr' Hold]]; [exact Ha|].
        cbn [rkey ratt rloc] in Hr', Hold, O. rewrite Eo, R in Hr'. injection Hr' as <-. congruence.
      + eapply HS; [exact Co|exact Ca|exact Ha].
    - exact (lt_maxGet_M _ HG).
  Qed.

  Lemma loop_move lo hi t c disp o :
    LoopInv lo hi t c disp ->
    read lo hi t (slot (rkey c) (ratt c)) = Some o ->
    rk_eqb o (rkey c) (ratt c) = false -> older (rloc o) (rloc c) = false ->
    (maxGet <=? ratt (bump c)) = false ->
    LoopInv lo hi t (bump c) disp.
  Proof.
    intros [HI2 [V [G [H3 [H4 HM]]]]] R K O HG.
    apply Nat.leb_gt in HG. cbn [Klm.bump ratt] in HG.
    split; [assumption|]. cbn [Klm.bump rkey ratt rloc]. split; [assumption|]. split; [|split; [|split]].
    - eapply gechain_step; eassumption.
    - intros a l Ca Ha. cbn [Klm.bump rkey ratt rloc] in Ca, Ha |- *.
      destruct (lt_S_cases _ _ Ha) as [Cx|Cx].
      + eapply H3; eassumption.
      + subst a. destruct (nocand_at key key_eqb key_eqb_spec slot _ _ _ _ _ _ _ R K Ca).
    - intros D a l Ca Ha. cbn [Klm.bump rkey ratt rloc] in Ca, Ha |- *. eapply H4; [assumption|exact Ca|apply Nat.lt_le_incl; exact Ha].
    - exact (lt_maxGet_M _ HG).
  Qed.

  Lemma loopinv_start lo hi t k l :
    Inv2 lo hi t -> valid lo hi l = true -> LoopInv lo hi t (mk k 0 l) false.
  Proof.
    intros HI V. split; [assumption|]. cbn [rkey ratt rloc]. split; [assumption|]. split; [|split; [|split]].
    - intros a' Ha'. inversion Ha'.
    - intros a l' _ Ha. inversion Ha.
    - discriminate.
    - exact (Nat.le_max_l 1 maxGet).
  Qed.

  Lemma inv2_empty lo hi : Inv2 lo hi (repeat None n).
  Proof.
    split; [apply inv_empty|]. split.
    - intros k a1 l1 a2 l2 C1 _ _. unfold cand in C1. apply read_some in C1. rewrite nth_repeat in C1. destruct C1; discriminate.
    - intros i r H. rewrite nth_repeat in H. discriminate.
  Qed.

  Lemma release_inv2 lo hi t : Inv2 lo hi t -> Inv2 (N.succ lo) hi t.
  Proof.
    intros [HI [HS HA]]. split; [apply release_inv; assumption|]. split; [|assumption].
    assert (W : forall k a l, cand (N.succ lo) hi t k a l -> cand lo hi t k a l).
    { unfold cand. intros k a l C. apply read_some in C. destruct C as [Cn Cv]. apply read_some. split; [assumption|].
      exact (valid_release _ _ _ Cv). }
    intros k a1 l1 a2 l2 C1 C2 Hlt. eapply HS; eauto.
  Qed.

  Lemma grow_inv2 lo hi t : Inv2 lo hi t -> Inv2 lo (N.succ hi) t.
  Proof.
    intros [HI [HS HA]]. split; [apply grow_inv; assumption|]. split; [|assumption].
    destruct HI as [_ [_ [Hb _]]].
    intros k a1 l1 a2 l2 C1 C2 Hlt. unfold cand in *. rewrite read_grow in C1, C2 by assumption.
    eapply HS; eauto.
  Qed.

  Definition MaxCand lo hi (t : table) (k : key) (l : loc) : Prop :=
    (exists a, cand lo hi t k a l) /\ forall a' l', cand lo hi t k a' l' -> older l l' = false.

  Lemma get_loop_reaches lo hi t k a l :
    Inv lo hi t -> cand lo hi t k a l ->
    forall d fuel a0, a0 + d = a -> d <= fuel -> exists l1, lookup_of (get_loop lo hi t k fuel a0) = Some l1.
  Proof.
    intros [_ [_ [_ Ho]]] C. induction d as [|d IH]; intros fuel a0 E Hf.
    - rewrite Nat.add_0_r in E. subst a0. destruct fuel; cbn [Klm.get_loop]; rewrite C;
        unfold Klm.rk_eqb; cbn; rewrite key_eqb_refl, Nat.eqb_refl by assumption; cbn; eauto.
    - destruct (Ho _ _ C a0) as [r' [Hr' _]]; [cbn; rewrite <- E; apply Nat.lt_add_pos_r, Nat.lt_0_succ|]. cbn in Hr'.
      destruct fuel as [|f]; [inversion Hf|]. cbn [Klm.get_loop]. rewrite Hr'.
      destruct (rk_eqb r' k a0); [cbn; eauto|]. apply IH; [rewrite <- E; apply Nat.add_succ_comm|apply le_S_n; exact Hf].
  Qed.

  Lemma tlookup_of_cand lo hi t k a l :
    Inv2 lo hi t -> cand lo hi t k a l -> exists l1, tlookup lo hi t k = Some l1.
  Proof.
    intros [HI [_ HA]] C. unfold tlookup.
    eapply (get_loop_reaches lo hi t k a l HI C a); [reflexivity|].
    apply read_some in C. destruct C as [Cn _]. pose proof (HA _ _ Cn) as Hm. cbn [ratt] in Hm. unfold M in Hm. lia.
  Qed.

  Lemma tlookup_max lo hi t k l : Inv2 lo hi t -> (tlookup lo hi t k = Some l <-> MaxCand lo hi t k l).
  Proof.
    intros HI2. pose proof HI2 as [HI [HS HA]].
    assert (Fwd : forall l, tlookup lo hi t k = Some l -> MaxCand lo hi t k l).
    { clear l. intros l H. unfold tlookup in H.
      destruct (get_loop lo hi t k (pred maxGet) 0) as [l0 att| |] eqn:G; cbn in H; try discriminate.
      injection H as ->. apply (get_loop_first key key_eqb key_eqb_spec slot) in G. destruct G as [a [_ [Ca Hn]]].
      split; [exists a; assumption|]. intros a' l' C'.
      destruct (Nat.lt_trichotomy a' a) as [Hc|[Hc|Hc]].
      - exfalso. exact (Hn a' l' (Nat.le_0_l a') Hc C').
      - subst a'. rewrite (cand_fun _ _ _ _ _ _ _ Ca C'). apply older_irrefl.
      - apply older_asym. eapply HS; eassumption. }
    split; [apply Fwd|]. intros [[a Ca] Hmax].
    (* the lookup finds something, which is maximal too; two maximal candidates of one key coincide *)
    destruct (tlookup_of_cand _ _ _ _ _ _ HI2 Ca) as [l1 H1]. rewrite H1. f_equal.
    destruct (Fwd l1 H1) as [[a1 C1] Hmax1].
    destruct (Nat.lt_trichotomy a1 a) as [Hc|[Hc|Hc]].
    - pose proof (HS _ _ _ _ _ C1 Ca Hc) as O. rewrite (Hmax _ _ C1) in O. discriminate.
    - subst a1. exact (cand_fun _ _ _ _ _ _ _ C1 Ca).
    - pose proof (HS _ _ _ _ _ Ca C1 Hc) as O. rewrite (Hmax1 _ _ Ca) in O. discriminate.
  Qed.

  Lemma tlookup_ext lo hi t t' k k' :
    Inv2 lo hi t -> Inv2 lo hi t' ->
    (forall l, MaxCand lo hi t' k' l <-> MaxCand lo hi t k l) ->
    tlookup lo hi t' k' = tlookup lo hi t k.
  Proof.
    intros HI HI' E.
    destruct (tlookup lo hi t k) as [l|] eqn:L.
    - apply tlookup_max; [assumption|]. apply E. apply tlookup_max; assumption.
    - destruct (tlookup lo hi t' k') as [l'|] eqn:L'; [|reflexivity].
      apply tlookup_max in L'; [|assumption]. apply E in L'. apply tlookup_max in L'; [|assumption]. congruence.
  Qed.

  Definition vcand lo hi (t : table) (c : rec) (k : key) (l : loc) : Prop :=
    (exists a, cand lo hi t k a l) \/ (rkey c = k /\ rloc c = l).
  Definition VMax lo hi (t : table) (c : rec) (k : key) (l : loc) : Prop :=
    vcand lo hi t c k l /\ forall l', vcand lo hi t c k l' -> older l l' = false.

  Lemma vmax_ext lo hi t c t' c' k :
    (forall l, vcand lo hi t' c' k l <-> vcand lo hi t c k l) ->
    forall l, VMax lo hi t' c' k l <-> VMax lo hi t c k l.
  Proof.
    intros E l. unfold VMax. split; intros [H1 H2]; (split; [apply E; assumption|]); intros l' H'; apply H2; apply E; assumption.
  Qed.

  Lemma vmax_other lo hi t c k l : rkey c <> k -> (VMax lo hi t c k l <-> MaxCand lo hi t k l).
  Proof.
    intros Nk. unfold MaxCand, VMax, vcand. split.
    - intros [[H1|[E _]] H2]; [|contradiction]. split; [assumption|]. intros a' l' C'. apply H2. left. eauto.
    - intros [H1 H2]. split; [left; assumption|]. intros l' [[a' C']|[E _]]; [eauto|contradiction].
  Qed.

  Lemma maxcand_dominated lo hi t c t' k :
    (forall l, (exists a, cand lo hi t' k a l) -> vcand lo hi t c k l) ->
    (forall l, vcand lo hi t c k l ->
               (exists a, cand lo hi t' k a l) \/ exists l2, (exists a, cand lo hi t' k a l2) /\ older l l2 = true) ->
    forall l, MaxCand lo hi t' k l <-> VMax lo hi t c k l.
  Proof.
    intros Sub Dom l. unfold MaxCand, VMax. split; intros [Hin Hmax].
    - split; [apply Sub; exact Hin|]. intros l' H'. destruct (Dom l' H') as [[a' C']|[l2 [[a2 C2] O2]]].
      + exact (Hmax a' l' C').
      + exact (older_nolder_trans _ _ _ O2 (Hmax a2 l2 C2)).
    - destruct (Dom l Hin) as [Hc|[l2 [H2 O2]]].
      + split; [exact Hc|]. intros a' l' C'. apply Hmax. apply Sub. exists a'. exact C'.
      + rewrite (Hmax l2 (Sub l2 H2)) in O2. discriminate.
  Qed.

  Lemma cand_self_placed lo hi t c disp :
    LoopInv lo hi t c disp ->
    cand lo hi (upd t (slot (rkey c) (ratt c)) (Some c)) (rkey c) (ratt c) (rloc c).
  Proof.
    intros [[[Hl _] _] [V _]]. apply cand_upd; [rewrite Hl; apply slot_lt|exact V|].
    left. split; [reflexivity|apply rec_eta].
  Qed.

  Lemma cand_placed lo hi t c disp k' a l :
    LoopInv lo hi t c disp ->
    cand lo hi (upd t (slot (rkey c) (ratt c)) (Some c)) k' a l -> vcand lo hi t c k' l.
  Proof.
    intros [[[Hl _] _] [V _]] C1. apply cand_upd in C1; [|rewrite Hl; apply slot_lt|exact V].
    destruct C1 as [[E Q]|[E C1]].
    - right. rewrite Q. cbn. auto.
    - left. eauto.
  Qed.

  Lemma vcand_swap lo hi t c disp o k l :
    LoopInv lo hi t c disp -> read lo hi t (slot (rkey c) (ratt c)) = Some o ->
    (vcand lo hi (upd t (slot (rkey c) (ratt c)) (Some c)) (bump o) k l <-> vcand lo hi t c k l).
  Proof.
    intros HL R. pose proof HL as [[[Hl [Hp _]] _] [V _]].
    assert (Hs : slot (rkey c) (ratt c) < length t) by (rewrite Hl; apply slot_lt).
    split.
    - intros [[a Ca]|[E1 E2]]; [exact (cand_placed _ _ _ _ _ _ _ _ HL Ca)|].
      left. exists (ratt o). cbn [Klm.bump rkey rloc] in E1, E2. subst k l. eapply cand_of_read; eassumption.
    - intros [[a Ca]|[E1 E2]].
      + destruct (Nat.eq_dec (slot k a) (slot (rkey c) (ratt c))) as [E|E].
        * right. rewrite <- E in R. rewrite (cand_at_slot _ _ _ _ _ _ _ R Ca). cbn. auto.
        * left. exists a. apply cand_upd; [assumption|assumption|]. right. split; assumption.
      + left. subst k l. exists (ratt c). exact (cand_self_placed _ _ _ _ _ HL).
  Qed.

  Lemma frame_place lo hi t c disp k' :
    LoopInv lo hi t c disp ->
    (forall q, read lo hi t (slot (rkey c) (ratt c)) = Some q ->
               older (rloc q) (rloc c) = true /\ (rkey q = k' -> rkey c = k')) ->
    forall l, MaxCand lo hi (upd t (slot (rkey c) (ratt c)) (Some c)) k' l <-> VMax lo hi t c k' l.
  Proof.
    intros HL Hq. pose proof (cand_self_placed _ _ _ _ _ HL) as Cc.
    apply maxcand_dominated; intros l H.
    - destruct H as [a Ca]. exact (cand_placed _ _ _ _ _ _ _ _ HL Ca).
    - destruct H as [[a Ca]|[E1 E2]]; [|left; subst k' l; exists (ratt c); exact Cc].
      destruct (Nat.eq_dec (slot k' a) (slot (rkey c) (ratt c))) as [E|E].
      + right. exists (rloc c). unfold cand in Ca. rewrite E in Ca. destruct (Hq _ Ca) as [O Ek].
        rewrite <- (Ek eq_refl). split; [exists (ratt c); exact Cc|exact O].
      + left. exists a. destruct HL as [[[Hl _] _] [V _]].
        apply cand_upd; [rewrite Hl; apply slot_lt|exact V|]. right. split; assumption.
  Qed.

  Lemma put_loop_frame lo hi t c t' o :
    PutLoop lo hi t c t' o -> forall disp k', LoopInv lo hi t c disp ->
    (disp = false -> rkey c <> k') -> (forall d, discarded o = Some d -> rkey d <> k') ->
    forall l, MaxCand lo hi t' k' l <-> VMax lo hi t c k' l.
  Proof.
    induction 1; intros disp k' HL Hd Hv.
    - intros l. symmetry. apply vmax_other. exact (Hv c eq_refl).
    - apply (frame_place _ _ _ _ _ _ HL). intros q Rq. rewrite R in Rq. discriminate.
    - apply (frame_place _ _ _ _ _ _ HL). intros q' Rq. rewrite R in Rq. injection Rq as <-.
      apply rk_eqb_spec in K; [|assumption]. split; [exact O|]. intros E. rewrite <- E. symmetry. apply K.
    - (* ignored: impossible once a record has been displaced, otherwise the key stored is not k' *)
      intros l. symmetry. apply vmax_other. intros Ek.
      destruct disp; [|exact (Hd eq_refl Ek)].
      destruct HL as [[HI _] [_ [_ [_ [H4 _]]]]].
      rewrite (H4 eq_refl (ratt c) (rloc q) (cand_of_same lo hi t c q HI R K)) in O; [discriminate|constructor].
    - apply (frame_place _ _ _ _ _ _ HL). intros q' Rq. rewrite R in Rq. injection Rq as <-.
      split; [exact O|]. intros E. destruct (Hv (bump q) eq_refl E).
    - intros l. rewrite (IHPutLoop true k' (loop_swap _ _ _ _ _ _ HL R K O G)); [|discriminate|exact Hv].
      apply vmax_ext. intros l0. exact (vcand_swap _ _ _ _ _ _ _ _ HL R).
    - intros l. symmetry. apply vmax_other. exact (Hv (bump c) eq_refl).
    - intros l. rewrite (IHPutLoop disp k' (loop_move _ _ _ _ _ _ HL R K O G) Hd Hv).
      apply vmax_ext. intros l0. unfold vcand. cbn [Klm.bump rkey rloc]. reflexivity.
  Qed.

  Definition newest (p : option loc) (l : loc) : loc :=
    match p with Some l0 => if older l0 l then l else l0 | None => l end.

  Definition NoCandBefore lo hi (t : table) (c : rec) : Prop :=
    forall a l', a < ratt c -> ~ cand lo hi t (rkey c) a l'.

  Lemma cand_kept lo hi t c disp k' a p :
    LoopInv lo hi t c disp ->
    (forall q, read lo hi t (slot (rkey c) (ratt c)) = Some q -> older (rloc q) (rloc c) = true) ->
    cand lo hi t k' a p -> older (rloc c) p = true ->
    cand lo hi (upd t (slot (rkey c) (ratt c)) (Some c)) k' a p.
  Proof.
    intros [[[Hl _] _] [V _]] Hq Cp Hp. apply cand_upd; [rewrite Hl; apply slot_lt|exact V|].
    right. split; [|exact Cp]. intros E. unfold cand in Cp. rewrite E in Cp. specialize (Hq _ Cp). cbn in Hq.
    rewrite (older_asym _ _ Hq) in Hp. discriminate.
  Qed.

  Definition Cands lo hi (t : table) (c : rec) (t' : table) : Prop :=
    Inv2 lo hi t'
    /\ (forall k' a l, cand lo hi t' k' a l -> vcand lo hi t c k' l)
    /\ (forall k' a p, cand lo hi t k' a p -> older (rloc c) p = true -> cand lo hi t' k' a p).

  Lemma cands_stay lo hi t c disp : LoopInv lo hi t c disp -> Cands lo hi t c t.
  Proof. intros HL. split; [apply HL|]. split; [intros k' a l C; left; eauto|auto]. Qed.

  Lemma cands_place lo hi t c disp :
    LoopInv lo hi t c disp ->
    (forall q, read lo hi t (slot (rkey c) (ratt c)) = Some q -> older (rloc q) (rloc c) = true) ->
    Cands lo hi t c (upd t (slot (rkey c) (ratt c)) (Some c)).
  Proof.
    intros HL Hnew. split; [exact (place_inv2 _ _ _ _ _ HL Hnew)|]. split.
    - intros k' a l C. exact (cand_placed _ _ _ _ _ _ _ _ HL C).
    - intros k' a p Cp Hp. exact (cand_kept _ _ _ _ _ _ _ _ HL Hnew Cp Hp).
  Qed.

  Lemma put_loop_cands lo hi t c t' o :
    PutLoop lo hi t c t' o -> forall disp, LoopInv lo hi t c disp -> Cands lo hi t c t'.
  Proof.
    induction 1; intros disp HL.
    - exact (cands_stay _ _ _ _ _ HL).
    - exact (cands_place _ _ _ _ _ HL (over_free key _ _ _ _ _ R)).
    - exact (cands_place _ _ _ _ _ HL (over_older key _ _ _ _ _ _ R O)).
    - exact (cands_stay _ _ _ _ _ HL).
    - exact (cands_place _ _ _ _ _ HL (over_older key _ _ _ _ _ _ R O)).
    - destruct (IHPutLoop true (loop_swap _ _ _ _ _ _ HL R K O G)) as (HI' & Sub & Keep).
      split; [exact HI'|]. split.
      + intros k' a l C. apply (vcand_swap _ _ _ _ _ _ _ _ HL R). exact (Sub k' a l C).
      + (* what is carried on is older still *)
        intros k' a p Cp Hp. apply Keep; [|exact (older_trans _ _ _ O Hp)].
        exact (cand_kept _ _ _ _ _ _ _ _ HL (over_older key _ _ _ _ _ _ R O) Cp Hp).
    - exact (cands_stay _ _ _ _ _ HL).
    - exact (IHPutLoop disp (loop_move _ _ _ _ _ _ HL R K O G)).
  Qed.

  Lemma put_inv2 lo hi t k l :
    Inv2 lo hi t -> valid lo hi l = true -> Inv2 lo hi (fst (put lo hi t k l)).
  Proof.
    intros HI V. destruct (put lo hi t k l) as [t' o] eqn:E. apply put_spec in E.
    exact (proj1 (put_loop_cands _ _ _ _ _ _ E false (loopinv_start lo hi t k l HI V))).
  Qed.

  Lemma tlookup_placed lo hi t k a l :
    Inv2 lo hi t -> cand lo hi t k a l ->
    (forall a' l', cand lo hi t k a' l' -> l' = l \/ older l' l = true) -> tlookup lo hi t k = Some l.
  Proof.
    intros HI C Hall. apply tlookup_max; [exact HI|]. split; [exists a; exact C|]. intros a' l' C'.
    destruct (Hall _ _ C') as [->|Hx]; [apply older_irrefl|apply older_asym; exact Hx].
  Qed.

  Lemma tlookup_first lo hi t c l :
    Inv2 lo hi t -> NoCandBefore lo hi t c -> cand lo hi t (rkey c) (ratt c) l ->
    tlookup lo hi t (rkey c) = Some l.
  Proof.
    intros HI HN C. apply (tlookup_placed lo hi t (rkey c) (ratt c) l HI C). intros a' l' C'.
    destruct (Nat.lt_trichotomy a' (ratt c)) as [Hc|[Hc|Hc]].
    - destruct (HN _ _ Hc C').
    - subst a'. left. exact (cand_fun _ _ _ _ _ _ _ C' C).
    - right. destruct HI as [_ [HS _]]. eapply HS; eassumption.
  Qed.

  Lemma cand_all_older lo hi t c :
    Inv lo hi t -> NoCandBefore lo hi t c ->
    (forall q, read lo hi t (slot (rkey c) (ratt c)) = Some q -> older (rloc q) (rloc c) = true) ->
    forall a' l', cand lo hi t (rkey c) a' l' -> older l' (rloc c) = true.
  Proof.
    intros [_ [_ [_ Ho]]] HN Hnew a' l' C'. destruct (Nat.lt_trichotomy a' (ratt c)) as [Hc|[Hc|Hc]].
    - destruct (HN _ _ Hc C').
    - subst a'. exact (Hnew _ C').
    - (* the chain of the candidate passes through the slot of the carried record *)
      destruct (Ho _ _ C' (ratt c) Hc) as [r' [Hr' Hold]]. cbn [rkey ratt rloc] in Hr', Hold.
      exact (nolder_older_lt _ _ _ Hold (Hnew _ Hr')).
  Qed.

  Lemma newest_all_older lo hi t k l :
    Inv2 lo hi t -> (forall a' l', cand lo hi t k a' l' -> older l' l = true) -> newest (tlookup lo hi t k) l = l.
  Proof.
    intros HI H. destruct (tlookup lo hi t k) as [l0|] eqn:L0; [|reflexivity]. cbn.
    apply tlookup_max in L0; [|exact HI]. destruct L0 as [[a0 C0] _]. rewrite (H _ _ C0). reflexivity.
  Qed.

  Lemma self_place lo hi t c :
    LoopInv lo hi t c false -> NoCandBefore lo hi t c ->
    (forall q, read lo hi t (slot (rkey c) (ratt c)) = Some q -> older (rloc q) (rloc c) = true) ->
    tlookup lo hi (upd t (slot (rkey c) (ratt c)) (Some c)) (rkey c)
    = Some (newest (tlookup lo hi t (rkey c)) (rloc c)).
  Proof.
    intros HL HN Hnew. pose proof HL as [HI2 _].
    pose proof (cand_all_older lo hi t c (proj1 HI2) HN Hnew) as AO.
    rewrite (newest_all_older lo hi t (rkey c) (rloc c) HI2 AO). apply (tlookup_placed _ _ _ _ (ratt c)).
    - exact (place_inv2 _ _ _ _ _ HL Hnew).
    - eapply cand_self_placed; exact HL.
    - intros a' l' C'. destruct (cand_placed _ _ _ _ _ _ _ _ HL C') as [[a0 C0]|[_ E]];
        [right; exact (AO _ _ C0)|left; symmetry; exact E].
  Qed.

  Lemma put_loop_self lo hi t c t' o :
    PutLoop lo hi t c t' o -> LoopInv lo hi t c false -> NoCandBefore lo hi t c ->
    tlookup lo hi t' (rkey c) = Some (newest (tlookup lo hi t (rkey c)) (rloc c))
    \/ (tlookup lo hi t' (rkey c) = tlookup lo hi t (rkey c)
        /\ exists d, discarded o = Some d /\ rkey d = rkey c).
  Proof.
    induction 1; intros HL HN; pose proof HL as [HI2 [V _]]; pose proof HI2 as [HI _].
    - right. split; [reflexivity|]. exists c. split; reflexivity.
    - left. exact (self_place _ _ _ _ HL HN (over_free key _ _ _ _ _ R)).
    - left. exact (self_place _ _ _ _ HL HN (over_older key _ _ _ _ _ _ R O)).
    - (* the key's own record at this attempt is not older: kept *)
      left. pose proof (cand_of_same lo hi t c q HI R K) as Cq.
      rewrite (tlookup_first lo hi t c (rloc q) HI2 HN Cq). cbn [newest]. rewrite O. reflexivity.
    - left. exact (self_place _ _ _ _ HL HN (over_older key _ _ _ _ _ _ R O)).
    - (* an older record is displaced and carried on: [c] stays, being newer than it *)
      left. pose proof (cand_all_older lo hi t c HI HN (over_older key _ _ _ _ _ _ R O)) as AO.
      rewrite (newest_all_older lo hi t (rkey c) (rloc c) HI2 AO).
      destruct (put_loop_cands _ _ _ _ _ _ H true (loop_swap _ _ _ _ _ _ HL R K O G)) as (HI' & Sub & Keep).
      apply (tlookup_placed _ _ _ _ (ratt c)).
      + exact HI'.
      + exact (Keep _ _ _ (cand_self_placed _ _ _ _ _ HL) O).
      + intros a' l' C'. destruct (Sub _ _ _ C') as [[a0 C0]|[_ E2]].
        * destruct (cand_placed _ _ _ _ _ _ _ _ HL C0) as [[a1 C1]|[_ E]];
            [right; exact (AO _ _ C1)|left; symmetry; exact E].
        * right. cbn in E2. subst l'. exact O.
    - right. split; [reflexivity|]. exists (bump c). split; reflexivity.
    - apply (IHPutLoop (loop_move _ _ _ _ _ _ HL R K O G)).
      intros a l' Ha C'. cbn [Klm.bump rkey ratt] in Ha, C'.
      destruct (lt_S_cases _ _ Ha) as [Cx| ->]; [exact (HN _ _ Cx C')|exact (nocand_at key key_eqb key_eqb_spec slot _ _ _ _ _ _ _ R K C')].
  Qed.

  Definition InvS2 (s : klm) : Prop := Inv2 (lo s) (hi s) (tbl s).

  Lemma lookup_tlookup s k : lookup s k = tlookup (lo s) (hi s) (tbl s) k.
  Proof. reflexivity. Qed.

  Lemma klm_put_window s k l s' o : klm_put s k l = (s', o) -> lo s' = lo s /\ hi s' = hi s.
  Proof.
    unfold Klm.klm_put. destruct (put (lo s) (hi s) (tbl s) k l) as [t' o']. intros H. injection H as <- _. cbn. auto.
  Qed.

  Lemma klm_put_loop s k l s' o :
    InvS2 s -> valid (lo s) (hi s) l = true -> klm_put s k l = (s', o) ->
    lo s' = lo s /\ hi s' = hi s
    /\ PutLoop (lo s) (hi s) (tbl s) (mk k 0 l) (tbl s') o /\ LoopInv (lo s) (hi s) (tbl s) (mk k 0 l) false.
  Proof.
    intros HI V P. unfold Klm.klm_put in P. destruct (put (lo s) (hi s) (tbl s) k l) as [t' o'] eqn:E.
    injection P as <- <-. cbn [lo hi tbl]. apply put_spec in E.
    split; [reflexivity|]. split; [reflexivity|]. split; [exact E|apply loopinv_start; assumption].
  Qed.

  Theorem put_frame_state s k l s' o k' :
    InvS2 s -> valid (lo s) (hi s) l = true -> klm_put s k l = (s', o) ->
    k' <> k -> (forall d, discarded o = Some d -> rkey d <> k') ->
    lookup s' k' = lookup s k'.
  Proof.
    intros HI V P Nk Hv. destruct (klm_put_loop s k l s' o HI V P) as (Elo & Ehi & H & HL).
    rewrite !lookup_tlookup, Elo, Ehi.
    apply tlookup_ext; [exact HI|exact (proj1 (put_loop_cands _ _ _ _ _ _ H _ HL))|].
    intros x. rewrite (put_loop_frame _ _ _ _ _ _ H false k' HL); [|cbn; congruence|assumption].
    apply vmax_other. cbn. congruence.
  Qed.

  Theorem put_own_key s k l s' o :
    InvS2 s -> valid (lo s) (hi s) l = true -> klm_put s k l = (s', o) ->
    lookup s' k = Some (newest (lookup s k) l)
    \/ (lookup s' k = lookup s k /\ exists d, discarded o = Some d /\ rkey d = k).
  Proof.
    intros HI V P. destruct (klm_put_loop s k l s' o HI V P) as (Elo & Ehi & H & HL).
    rewrite !lookup_tlookup, Elo, Ehi.
    apply (put_loop_self _ _ _ _ _ _ H HL). intros a l' Ha. inversion Ha.
  Qed.

  Theorem put_falls_back_state s k l s' o k' x :
    InvS2 s -> valid (lo s) (hi s) l = true -> klm_put s k l = (s', o) ->
    lookup s' k' = Some x ->
    (k' = k /\ x = l) \/
    exists prev, lookup s k' = Some prev /\ (x = prev \/ older x prev = true).
  Proof.
    intros HI V P. destruct (klm_put_loop s k l s' o HI V P) as (Elo & Ehi & H & HL).
    rewrite !lookup_tlookup, Elo, Ehi. intros L.
    destruct (put_loop_cands _ _ _ _ _ _ H _ HL) as (HI' & Sub & _).
    apply tlookup_max in L; [|assumption]. destruct L as [[a Ca] _].
    destruct (Sub _ _ _ Ca) as [[a0 C0]|[E1 E2]]; [|left; split; [symmetry; exact E1|symmetry; exact E2]].
    right. destruct (tlookup_of_cand _ _ _ _ _ _ HI C0) as [prev Lp]. exists prev. split; [assumption|].
    apply tlookup_max in Lp; [|assumption]. destruct Lp as [[a1 C1] Hmax].
    destruct HI as [_ [HS _]].
    destruct (Nat.lt_trichotomy a0 a1) as [Hc|[Hc|Hc]].
    - pose proof (HS _ _ _ _ _ C0 C1 Hc) as O. specialize (Hmax _ _ C0). congruence.
    - subst a1. left. exact (cand_fun _ _ _ _ _ _ _ C0 C1).
    - right. eapply HS; eassumption.
  Qed.

  Theorem put_newer_kept s k l s' o k' p :
    InvS2 s -> valid (lo s) (hi s) l = true -> klm_put s k l = (s', o) ->
    lookup s k' = Some p -> older l p = true -> lookup s' k' = Some p.
  Proof.
    intros HI V P. destruct (klm_put_loop s k l s' o HI V P) as (Elo & Ehi & H & HL).
    rewrite !lookup_tlookup, Elo, Ehi. intros L O.
    destruct (put_loop_cands _ _ _ _ _ _ H _ HL) as (HI' & Sub & Keep).
    apply tlookup_max in L; [|assumption]. destruct L as [[a Ca] Hmax].
    apply tlookup_max; [assumption|]. split.
    - exists a. exact (Keep _ _ _ Ca O).
    - intros a' l' C'. destruct (Sub _ _ _ C') as [[a0 C0]|[E1 E2]].
      + eapply Hmax; eassumption.
      + cbn in E2. subst l'. apply older_asym. exact O.
  Qed.

  Lemma step_inv2 s o s' : InvS2 s -> step s o = Some s' -> InvS2 s'.
  Proof. exact (step_preserves key key_eqb slot maxGet maxPut Inv2 put_inv2 release_inv2 grow_inv2 s o s'). Qed.

  Lemma run_inv2 h : forall s s', InvS2 s -> run s h = Some s' -> InvS2 s'.
  Proof. apply (run_preserves key key_eqb slot maxGet maxPut). exact step_inv2. Qed.

  Notation Reachable := (Reachable key key_eqb n slot maxGet maxPut).

  Lemma reachable_inv2 s : Reachable s -> InvS2 s.
  Proof.
    intros [h0 [h H]]. eapply run_inv2; [|exact H]. unfold InvS2. cbn. apply inv2_empty.
  Qed.

  Notation amap_put := (amap_put key key_eqb).
  Notation amap_run := (amap_run key key_eqb).
  Notation amap_get := (amap_get key).

  Definition ABound (hi : N) (m : amap key) : Prop := forall k l, m k = Some l -> (blk l < hi)%N.

  Lemma amap_get_release lo hi m k :
    amap_get (N.succ lo) hi m k = keep_valid (N.succ lo) hi (amap_get lo hi m k).
  Proof.
    unfold Klm.amap_get, keep_valid. destruct (m k) as [l0|]; [|reflexivity].
    destruct (valid lo hi l0) eqn:V0; [reflexivity|].
    rewrite (valid_release_false _ _ _ V0). reflexivity.
  Qed.

  Lemma amap_get_grow lo hi m k : ABound hi m -> amap_get lo (N.succ hi) m k = amap_get lo hi m k.
  Proof.
    intros HB. unfold Klm.amap_get. destruct (m k) as [l0|] eqn:M0; [|reflexivity].
    rewrite (valid_grow lo hi _ (HB _ _ M0)). reflexivity.
  Qed.

  Lemma amap_get_put lo hi m k l k' :
    ABound hi m -> valid lo hi l = true ->
    amap_get lo hi (amap_put m k l) k'
    = if key_eqb k' k then Some (newest (amap_get lo hi m k') l) else amap_get lo hi m k'.
  Proof.
    intros HB V. unfold Klm.amap_get, Klm.amap_put. destruct (key_eqb k' k); [|reflexivity].
    destruct (m k') as [l0|] eqn:M0; cbn [newest]; [|rewrite V; reflexivity].
    destruct (valid lo hi l0) eqn:V0; cbn [newest].
    - destruct (older l0 l); [rewrite V|rewrite V0]; reflexivity.
    - assert (O : older l0 l = true) by (specialize (HB _ _ M0); clear - HB V V0; ord).
      rewrite O, V. reflexivity.
  Qed.

  Lemma abound_put lo hi m k l : ABound hi m -> valid lo hi l = true -> ABound hi (amap_put m k l).
  Proof.
    intros HB V k' x Hx. unfold Klm.amap_put in Hx. destruct (key_eqb k' k); [|eapply HB; eassumption].
    destruct (m k') as [l0|] eqn:M0.
    - destruct (older l0 l); injection Hx as <-; [apply valid_spec in V; apply V|eapply HB; eassumption].
    - injection Hx as <-. apply valid_spec in V. apply V.
  Qed.

  Lemma refine_run h : forall s0 s m0,
    InvS2 s0 -> ABound (hi s0) m0 ->
    (forall k, lookup s0 k = amap_get (lo s0) (hi s0) m0 k) ->
    run s0 h = Some s -> discards s0 h = [] ->
    forall k, lookup s k = amap_get (lo s) (hi s) (amap_run m0 h) k.
  Proof.
    induction h as [|o h IH]; intros s0 s m0 HI2 HB HR Hrun HD; cbn in Hrun.
    - injection Hrun as <-. exact HR.
    - destruct (step s0 o) as [s1|] eqn:E; [|discriminate].
      assert (HI2' : InvS2 s1) by (eapply step_inv2; eassumption).
      pose proof HI2 as [HI _].
      cbn [Klm.discards] in HD. rewrite E in HD.
      destruct o as [k l|k| |]; cbn [Klm.amap_run]; cbn in E.
      + destruct (valid (lo s0) (hi s0) l) eqn:V; [|discriminate]. injection E as <-.
        apply app_eq_nil in HD. destruct HD as [HD1 HD2].
        destruct (klm_put s0 k l) as [s1 o] eqn:P. cbn [fst snd] in *.
        assert (ND : forall d, discarded o = Some d -> False).
        { intros d Hd. rewrite Hd in HD1. discriminate. }
        destruct (klm_put_window s0 k l s1 o P) as [Elo Ehi].
        apply (IH s1 s (amap_put m0 k l)); try assumption.
        * rewrite Ehi. eapply abound_put; eassumption.
        * intros k'. rewrite Elo, Ehi, (amap_get_put _ _ _ _ _ _ HB V), <- HR.
          destruct (key_eqb k' k) eqn:Ek.
          -- apply key_eqb_spec in Ek. subst k'.
             destruct (put_own_key s0 k l s1 o HI2 V P) as [H|[_ [d [Hd _]]]]; [exact H|destruct (ND d Hd)].
          -- apply (put_frame_state s0 k l s1 o k' HI2 V P).
             ++ intros X. apply key_eqb_spec in X. congruence.
             ++ intros d Hd. destruct (ND d Hd).
      + injection E as <-. apply (IH s0 s m0); assumption.
      + destruct (lo s0 <? hi s0)%N; [|discriminate]. injection E as <-.
        apply (IH (klm_release key s0) s m0); try assumption.
        intros k. cbn [lo hi Klm.klm_release]. rewrite amap_get_release, <- HR.
        exact (release_exact_state key key_eqb key_eqb_spec n slot maxGet s0 k HI).
      + injection E as <-.
        apply (IH (klm_grow key s0) s m0); try assumption.
        * cbn. intros k l Hm. apply N.lt_lt_succ_r. exact (HB _ _ Hm).
        * intros k. cbn [lo hi Klm.klm_grow]. rewrite (amap_get_grow _ _ _ _ HB), <- HR.
          exact (grow_frame_state key key_eqb n slot maxGet s0 k HI).
  Qed.

  Lemma lookup_empty h0 k : lookup (klm_empty key n h0) k = None.
  Proof.
    unfold Klm.lookup, Klm.klm_get, Klm.get. cbn [tbl lo hi Klm.klm_empty].
    destruct (pred maxGet); cbn [Klm.get_loop]; unfold Klm.read; rewrite nth_repeat; reflexivity.
  Qed.

  Theorem no_discard_newest_thm : forall h0 h s,
    run (klm_empty key n h0) h = Some s -> discards (klm_empty key n h0) h = [] ->
    forall k, lookup s k = amap_get (lo s) (hi s) (amap_run (amap_empty key) h) k.
  Proof.
    intros h0 h s Hrun HD. eapply (refine_run h (klm_empty key n h0) s (amap_empty key)); try assumption.
    - unfold InvS2. cbn. apply inv2_empty.
    - intros k l Hm. discriminate.
    - intros k. apply lookup_empty.
  Qed.
End Frame.
