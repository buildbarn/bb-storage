(** Proofs about Index/Klm.v for an ARBITRARY slot function [slot k a < n]:
    the probe-order invariant and its preservation, soundness of lookups,
    exactness of release, age of discarded records. *)
From Coq Require Import List NArith Arith Bool Lia.
From BBS Require Import Index.Klm.
Import ListNotations.

Lemma lt_S_cases a b : a < S b -> a < b \/ a = b.
Proof. lia. Qed.

Lemma upd_length {A} (l : list A) i x : length (upd l i x) = length l.
Proof. revert i; induction l; intros [|i]; cbn; auto. Qed.

Lemma nth_upd_some {A} (l : list (option A)) i j x r :
  nth j (upd l i x) None = Some r -> x = Some r \/ nth j l None = Some r.
Proof. revert i j; induction l as [|h t IH]; intros [|i] [|j] H; cbn in *; eauto; discriminate. Qed.

Lemma nth_upd {A} (l : list A) i j x d :
  i < length l -> nth j (upd l i x) d = if Nat.eqb j i then x else nth j l d.
Proof.
  revert i j; induction l as [|h t IH]; intros i j Hi; cbn in Hi; [inversion Hi|].
  destruct i, j; cbn; auto. apply IH. apply Nat.succ_lt_mono. exact Hi.
Qed.

Lemma older_spec a b :
  older a b = true <-> (blk a < blk b \/ (blk a = blk b /\ off a < off b))%N.
Proof.
  unfold older. split.
  - intros H. apply orb_true_iff in H. destruct H as [H|H]; [left; apply N.ltb_lt; exact H|].
    apply andb_true_iff in H. destruct H as [H1 H2]. right. split; [apply N.eqb_eq; exact H1|apply N.ltb_lt; exact H2].
  - intros [H|[H1 H2]]; apply orb_true_iff; [left; apply N.ltb_lt; exact H|].
    right. apply andb_true_iff. split; [apply N.eqb_eq; exact H1|apply N.ltb_lt; exact H2].
Qed.
Lemma older_false a b :
  older a b = false <-> ~ (blk a < blk b \/ (blk a = blk b /\ off a < off b))%N.
Proof. rewrite <- older_spec. symmetry. apply not_true_iff_false. Qed.
Lemma valid_spec lo hi l : valid lo hi l = true <-> (lo <= blk l /\ blk l < hi)%N.
Proof.
  unfold valid. split.
  - intros H. apply andb_true_iff in H. destruct H as [H1 H2]. split; [apply N.leb_le; exact H1|apply N.ltb_lt; exact H2].
  - intros [H1 H2]. apply andb_true_iff. split; [apply N.leb_le; exact H1|apply N.ltb_lt; exact H2].
Qed.
Lemma valid_false lo hi l : valid lo hi l = false <-> ~ (lo <= blk l /\ blk l < hi)%N.
Proof. rewrite <- valid_spec. symmetry. apply not_true_iff_false. Qed.

Ltac ord :=
  repeat match goal with
         | H : older _ _ = true |- _ => apply older_spec in H
         | H : older _ _ = false |- _ => apply older_false in H
         | H : valid _ _ _ = true |- _ => apply valid_spec in H
         | H : valid _ _ _ = false |- _ => apply valid_false in H
         end;
  try match goal with
      | |- older _ _ = true => apply older_spec
      | |- older _ _ = false => apply older_false
      | |- valid _ _ _ = true => apply valid_spec
      | |- valid _ _ _ = false => apply valid_false
      end;
  lia.

Lemma valid_release lo hi l : valid (N.succ lo) hi l = true -> valid lo hi l = true.
Proof. intros; ord. Qed.
Lemma valid_release_false lo hi l : valid lo hi l = false -> valid (N.succ lo) hi l = false.
Proof.
  intros H. destruct (valid (N.succ lo) hi l) eqn:E; [|reflexivity]. rewrite (valid_release _ _ _ E) in H. discriminate.
Qed.
Lemma valid_grow lo hi l : (blk l < hi)%N -> valid lo (N.succ hi) l = valid lo hi l.
Proof. intros H. unfold valid. f_equal. apply eq_true_iff_eq. rewrite !N.ltb_lt. lia. Qed.

Lemma older_irrefl a : older a a = false.
Proof. ord. Qed.
Lemma older_trans a b c : older a b = true -> older b c = true -> older a c = true.
Proof. intros; ord. Qed.
Lemma older_asym a b : older a b = true -> older b a = false.
Proof.
  intros H. destruct (older b a) eqn:E; [|reflexivity]. rewrite <- (older_irrefl a). symmetry. exact (older_trans _ _ _ H E).
Qed.
(** a <= b < c *)
Lemma nolder_older_lt a b c : older b a = false -> older b c = true -> older a c = true.
Proof. intros; ord. Qed.
Lemma nolder_older_trans a b c : older b a = false -> older b c = true -> older c a = false.
Proof. intros H1 H2. exact (older_asym _ _ (nolder_older_lt _ _ _ H1 H2)). Qed.
(** a < b <= c *)
Lemma older_nolder_trans a b c : older a b = true -> older c b = false -> older c a = false.
Proof.
  intros H1 H2. destruct (older c a) eqn:E; [|reflexivity]. rewrite (older_trans _ _ _ E H1) in H2. discriminate.
Qed.
Lemma nolder_trans a b c : older b a = false -> older c b = false -> older c a = false.
Proof. intros; ord. Qed.

Section Proofs.
  Variable key : Type.
  Variable key_eqb : key -> key -> bool.
  Hypothesis key_eqb_spec : forall a b, key_eqb a b = true <-> a = b.
  Variable n : nat.
  Variable slot : key -> nat -> nat.
  Hypothesis slot_lt : forall k a, slot k a < n.
  Variables maxGet maxPut : nat.

  Notation rec := (rec key).
  Notation table := (table key).
  Notation read := (read key).
  Notation get_loop := (get_loop key key_eqb slot).
  Notation get := (get key key_eqb slot maxGet).
  Notation put_loop := (put_loop key key_eqb slot maxGet).
  Notation put := (put key key_eqb slot maxGet maxPut).
  Notation klm := (klm key).
  Notation lookup := (lookup key key_eqb slot maxGet).
  Notation klm_put := (klm_put key key_eqb slot maxGet maxPut).
  Notation step := (step key key_eqb slot maxGet maxPut).
  Notation run := (run key key_eqb slot maxGet maxPut).
  Notation bump := (bump key).

  Lemma key_eqb_refl k : key_eqb k k = true.
  Proof. apply key_eqb_spec; reflexivity. Qed.

  Lemma rk_eqb_spec (r : rec) k a : rk_eqb key key_eqb r k a = true <-> rkey r = k /\ ratt r = a.
  Proof.
    unfold rk_eqb. split.
    - intros H. apply andb_true_iff in H. destruct H as [H1 H2]. split; [apply key_eqb_spec; exact H1|apply Nat.eqb_eq; exact H2].
    - intros [H1 H2]. apply andb_true_iff. split; [apply key_eqb_spec; exact H1|apply Nat.eqb_eq; exact H2].
  Qed.

  Lemma read_some lo hi t i r :
    read lo hi t i = Some r <-> nth i t None = Some r /\ valid lo hi (rloc r) = true.
  Proof.
    unfold Klm.read. destruct (nth i t None) as [q|]; [|split; [discriminate|intros [? _]; discriminate]].
    destruct (valid lo hi (rloc q)) eqn:V; split; intros H.
    - injection H as <-. auto.
    - destruct H as [H _]; exact H.
    - discriminate.
    - destruct H as [H V']. injection H as <-. congruence.
  Qed.

  Lemma read_upd lo hi t s r j :
    s < length t -> valid lo hi (rloc r) = true ->
    read lo hi (upd t s (Some r)) j = if Nat.eqb j s then Some r else read lo hi t j.
  Proof.
    intros Hs V. unfold Klm.read. rewrite nth_upd by assumption.
    destruct (Nat.eqb j s); [rewrite V|]; reflexivity.
  Qed.

  Definition Placed (t : table) : Prop :=
    forall i r, nth i t None = Some r -> slot (rkey r) (ratt r) = i.
  Definition Bounded (hi : N) (t : table) : Prop :=
    forall i r, nth i t None = Some r -> (blk (rloc r) < hi)%N.
  (** every slot earlier on the probe sequence of (k, a) holds a live record
      that is not older than [l]. *)
  Definition GeChain (lo hi : N) (t : table) (k : key) (a : nat) (l : loc) : Prop :=
    forall a', a' < a -> exists r', read lo hi t (slot k a') = Some r' /\ older (rloc r') l = false.
  (** "everything further along a probe sequence is older" *)
  Definition Ordered (lo hi : N) (t : table) : Prop :=
    forall i r, read lo hi t i = Some r -> GeChain lo hi t (rkey r) (ratt r) (rloc r).
  Definition Inv (lo hi : N) (t : table) : Prop :=
    length t = n /\ Placed t /\ Bounded hi t /\ Ordered lo hi t.

  Lemma inv_empty lo hi : Inv lo hi (repeat None n).
  Proof.
    repeat split.
    - apply repeat_length.
    - intros i r H. rewrite nth_repeat in H. discriminate.
    - intros i r H. rewrite nth_repeat in H. discriminate.
    - intros i r H. apply read_some in H. rewrite nth_repeat in H. destruct H; discriminate.
  Qed.

  Lemma gechain_upd lo hi t s r k a l :
    s < length t -> valid lo hi (rloc r) = true ->
    (forall o, read lo hi t s = Some o -> older (rloc o) (rloc r) = true) ->
    GeChain lo hi t k a l -> GeChain lo hi (upd t s (Some r)) k a l.
  Proof.
    intros Hs V Hnew G a' Ha. destruct (G a' Ha) as [r' [Hr' Ho]].
    rewrite read_upd by assumption.
    destruct (Nat.eqb (slot k a') s) eqn:E.
    - apply Nat.eqb_eq in E. rewrite E in Hr'. exists r. split; [reflexivity|].
      specialize (Hnew _ Hr'). eapply nolder_older_trans; eassumption.
    - exists r'. split; assumption.
  Qed.

  Lemma inv_upd lo hi t s r :
    Inv lo hi t -> valid lo hi (rloc r) = true ->
    GeChain lo hi t (rkey r) (ratt r) (rloc r) ->
    (forall o, read lo hi t s = Some o -> older (rloc o) (rloc r) = true) ->
    s = slot (rkey r) (ratt r) ->
    Inv lo hi (upd t s (Some r)).
  Proof.
    intros [Hl [Hp [Hb Ho]]] V G Hnew Es.
    assert (Hs : s < length t) by (rewrite Hl, Es; apply slot_lt).
    repeat split.
    - rewrite upd_length; assumption.
    - intros i q H. rewrite nth_upd in H by assumption.
      destruct (Nat.eqb i s) eqn:E.
      + apply Nat.eqb_eq in E. injection H as <-. rewrite E. symmetry. exact Es.
      + eapply Hp; eassumption.
    - intros i q H. rewrite nth_upd in H by assumption.
      destruct (Nat.eqb i s) eqn:E.
      + injection H as <-. apply valid_spec in V. apply V.
      + eapply Hb; eassumption.
    - intros i q H. rewrite read_upd in H by assumption.
      apply gechain_upd; try assumption.
      destruct (Nat.eqb i s) eqn:E.
      + injection H as <-. assumption.
      + eapply Ho; eassumption.
  Qed.

  Inductive PutLoop (lo hi : N) : table -> rec -> table -> pres key -> Prop :=
  | pl_fuel t c : PutLoop lo hi t c t (PTooManyIterations key c)
  | pl_insert it t c
      (R : read lo hi t (slot (rkey c) (ratt c)) = None) :
      PutLoop lo hi t c (upd t (slot (rkey c) (ratt c)) (Some c)) (PInserted key it)
  | pl_update it t c q
      (R : read lo hi t (slot (rkey c) (ratt c)) = Some q) (K : rk_eqb key key_eqb q (rkey c) (ratt c) = true)
      (O : older (rloc q) (rloc c) = true) :
      PutLoop lo hi t c (upd t (slot (rkey c) (ratt c)) (Some c)) (PUpdated key it)
  | pl_ignore it t c q
      (R : read lo hi t (slot (rkey c) (ratt c)) = Some q) (K : rk_eqb key key_eqb q (rkey c) (ratt c) = true)
      (O : older (rloc q) (rloc c) = false) :
      PutLoop lo hi t c t (PIgnoredOlder key it)
  | pl_swap_end it t c q
      (R : read lo hi t (slot (rkey c) (ratt c)) = Some q) (K : rk_eqb key key_eqb q (rkey c) (ratt c) = false)
      (O : older (rloc q) (rloc c) = true) (G : (maxGet <=? ratt (bump q)) = true) :
      PutLoop lo hi t c (upd t (slot (rkey c) (ratt c)) (Some c)) (PTooManyAttempts key it (bump q))
  | pl_swap t c q t' o
      (R : read lo hi t (slot (rkey c) (ratt c)) = Some q) (K : rk_eqb key key_eqb q (rkey c) (ratt c) = false)
      (O : older (rloc q) (rloc c) = true) (G : (maxGet <=? ratt (bump q)) = false)
      (L : PutLoop lo hi (upd t (slot (rkey c) (ratt c)) (Some c)) (bump q) t' o) : PutLoop lo hi t c t' o
  | pl_move_end it t c q
      (R : read lo hi t (slot (rkey c) (ratt c)) = Some q) (K : rk_eqb key key_eqb q (rkey c) (ratt c) = false)
      (O : older (rloc q) (rloc c) = false) (G : (maxGet <=? ratt (bump c)) = true) :
      PutLoop lo hi t c t (PTooManyAttempts key it (bump c))
  | pl_move t c q t' o
      (R : read lo hi t (slot (rkey c) (ratt c)) = Some q) (K : rk_eqb key key_eqb q (rkey c) (ratt c) = false)
      (O : older (rloc q) (rloc c) = false) (G : (maxGet <=? ratt (bump c)) = false)
      (L : PutLoop lo hi t (bump c) t' o) : PutLoop lo hi t c t' o.

  Lemma put_loop_spec lo hi fuel : forall it t c t' o,
    put_loop lo hi fuel it t c = (t', o) -> PutLoop lo hi t c t' o.
  Proof.
    induction fuel as [|f IH]; intros it t c t' o H; cbn [Klm.put_loop] in H.
    - injection H as <- <-. apply pl_fuel.
    - destruct (read lo hi t (slot (rkey c) (ratt c))) as [q|] eqn:R.
      + destruct (rk_eqb key key_eqb q (rkey c) (ratt c)) eqn:K.
        * destruct (older (rloc q) (rloc c)) eqn:O; injection H as <- <-.
          -- eapply pl_update; eassumption.
          -- eapply pl_ignore; eassumption.
        * destruct (older (rloc q) (rloc c)) eqn:O.
          -- destruct (maxGet <=? ratt (bump q)) eqn:G.
             ++ injection H as <- <-. eapply pl_swap_end; eassumption.
             ++ eapply pl_swap; try eassumption. eapply IH; exact H.
          -- destruct (maxGet <=? ratt (bump c)) eqn:G.
             ++ injection H as <- <-. eapply pl_move_end; eassumption.
             ++ eapply pl_move; try eassumption. eapply IH; exact H.
      + injection H as <- <-. apply pl_insert. exact R.
  Qed.

  Lemma put_spec lo hi t k l t' o :
    put lo hi t k l = (t', o) -> PutLoop lo hi t {| rkey := k; ratt := 0; rloc := l |} t' o.
  Proof. apply put_loop_spec. Qed.

  Lemma over_free lo hi t s (c : rec) :
    read lo hi t s = None -> forall o, read lo hi t s = Some o -> older (rloc o) (rloc c) = true.
  Proof. intros R o Ho. rewrite R in Ho. discriminate. Qed.
  Lemma over_older lo hi t s (c q : rec) :
    read lo hi t s = Some q -> older (rloc q) (rloc c) = true ->
    forall o, read lo hi t s = Some o -> older (rloc o) (rloc c) = true.
  Proof. intros R O o Ho. rewrite R in Ho. injection Ho as <-. exact O. Qed.

  Lemma gechain_step lo hi t k a l q :
    GeChain lo hi t k a l -> read lo hi t (slot k a) = Some q -> older (rloc q) l = false ->
    GeChain lo hi t k (S a) l.
  Proof.
    intros G R O a' Ha'. destruct (lt_S_cases _ _ Ha') as [Ca|Ca].
    - apply G; assumption.
    - subst a'. exists q. split; assumption.
  Qed.

  Lemma gechain_displaced lo hi t c q :
    Inv lo hi t -> valid lo hi (rloc c) = true ->
    read lo hi t (slot (rkey c) (ratt c)) = Some q -> older (rloc q) (rloc c) = true ->
    GeChain lo hi (upd t (slot (rkey c) (ratt c)) (Some c)) (rkey q) (S (ratt q)) (rloc q).
  Proof.
    intros [Hl [Hp [Hb Ho]]] V R O.
    assert (Hs : slot (rkey c) (ratt c) < length t) by (rewrite Hl; apply slot_lt).
    pose proof R as R'. apply read_some in R'. destruct R' as [Rn Rv].
    apply (gechain_step lo hi _ (rkey q) (ratt q) (rloc q) c).
    - apply gechain_upd; auto; [exact (over_older _ _ _ _ _ _ R O)|eapply Ho; exact R].
    - rewrite (Hp _ _ Rn), read_upd, Nat.eqb_refl by assumption. reflexivity.
    - apply older_asym. exact O.
  Qed.

  Lemma put_loop_inv lo hi t r t' o :
    PutLoop lo hi t r t' o -> Inv lo hi t -> valid lo hi (rloc r) = true ->
    GeChain lo hi t (rkey r) (ratt r) (rloc r) -> Inv lo hi t'.
  Proof.
    induction 1; intros HI V Ch.
    - exact HI.
    - apply inv_upd; auto. exact (over_free _ _ _ _ _ R).
    - apply inv_upd; auto. exact (over_older _ _ _ _ _ _ R O).
    - exact HI.
    - apply inv_upd; auto. exact (over_older _ _ _ _ _ _ R O).
    - apply IHPutLoop.
      + apply inv_upd; auto. exact (over_older _ _ _ _ _ _ R O).
      + apply read_some in R. apply R.
      + exact (gechain_displaced lo hi t c q HI V R O).
    - exact HI.
    - apply IHPutLoop; [exact HI|exact V|]. eapply gechain_step; eassumption.
  Qed.

  Lemma put_inv lo hi t k l :
    Inv lo hi t -> valid lo hi l = true -> Inv lo hi (fst (put lo hi t k l)).
  Proof.
    intros HI V. destruct (put lo hi t k l) as [t' o] eqn:E.
    apply put_spec in E. eapply put_loop_inv; [exact E|exact HI|exact V|].
    intros a' Ha'. inversion Ha'.
  Qed.

  Lemma release_inv lo hi t : Inv lo hi t -> Inv (N.succ lo) hi t.
  Proof.
    intros [Hl [Hp [Hb Ho]]]. repeat split; auto.
    intros i r H. apply read_some in H. destruct H as [Hn Hv].
    assert (H0 : read lo hi t i = Some r) by (apply read_some; split; [assumption|exact (valid_release _ _ _ Hv)]).
    intros a' Ha'. destruct (Ho _ _ H0 a' Ha') as [r' [Hr' Hold]].
    exists r'. split; [|assumption].
    apply read_some in Hr'. destruct Hr' as [Hn' Hv']. apply read_some. split; [assumption|clear - Hv Hv' Hold; ord].
  Qed.

  Lemma read_grow lo hi t i : Bounded hi t -> read lo (N.succ hi) t i = read lo hi t i.
  Proof.
    intros Hb. unfold Klm.read. destruct (nth i t None) as [r|] eqn:E; [|reflexivity].
    rewrite (valid_grow lo hi _ (Hb _ _ E)). reflexivity.
  Qed.

  Lemma grow_inv lo hi t : Inv lo hi t -> Inv lo (N.succ hi) t.
  Proof.
    intros [Hl [Hp [Hb Ho]]]. repeat split; auto.
    - intros i r H. apply N.lt_lt_succ_r. exact (Hb _ _ H).
    - intros i r H. rewrite read_grow in H by assumption.
      intros a' Ha'. rewrite read_grow by assumption. eapply Ho; eassumption.
  Qed.

  Definition InvS (s : klm) : Prop := Inv (lo s) (hi s) (tbl s).

  Lemma step_preserves (Q : N -> N -> table -> Prop) :
    (forall lo hi t k l, Q lo hi t -> valid lo hi l = true -> Q lo hi (fst (put lo hi t k l))) ->
    (forall lo hi t, Q lo hi t -> Q (N.succ lo) hi t) -> (forall lo hi t, Q lo hi t -> Q lo (N.succ hi) t) ->
    forall s o s', Q (lo s) (hi s) (tbl s) -> step s o = Some s' -> Q (lo s') (hi s') (tbl s').
  Proof.
    intros Hput Hrel Hgrow s o s' HI H. destruct o as [k l|k| |]; cbn in H.
    - destruct (valid (lo s) (hi s) l) eqn:V; [|discriminate]. injection H as <-.
      unfold Klm.klm_put. pose proof (Hput (lo s) (hi s) (tbl s) k l HI V) as P.
      destruct (put (lo s) (hi s) (tbl s) k l) as [t' o]. exact P.
    - injection H as <-. assumption.
    - destruct (lo s <? hi s)%N; [|discriminate]. injection H as <-. cbn. apply Hrel; assumption.
    - injection H as <-. cbn. apply Hgrow; assumption.
  Qed.

  Lemma step_inv s o s' : InvS s -> step s o = Some s' -> InvS s'.
  Proof. exact (step_preserves Inv put_inv release_inv grow_inv s o s'). Qed.

  Lemma run_preserves (P : klm -> Prop) :
    (forall s o s', P s -> step s o = Some s' -> P s') ->
    forall h s s', P s -> run s h = Some s' -> P s'.
  Proof.
    intros HP. induction h as [|o h IH]; intros s s' HI H; cbn in H.
    - injection H as <-. assumption.
    - destruct (step s o) as [s1|] eqn:E; [|discriminate].
      eapply IH; [|exact H]. eapply HP; eassumption.
  Qed.

  Lemma run_inv h : forall s s', InvS s -> run s h = Some s' -> InvS s'.
  Proof. apply run_preserves. exact step_inv. Qed.

  Definition Reachable (s : klm) : Prop := exists h0 h, run (klm_empty key n h0) h = Some s.

  Lemma reachable_inv s : Reachable s -> InvS s.
  Proof.
    intros [h0 [h H]]. eapply run_inv; [|exact H]. unfold InvS. cbn. apply inv_empty.
  Qed.

  Lemma read_found lo hi t k a (r : rec) :
    read lo hi t (slot k a) = Some r -> rk_eqb key key_eqb r k a = true ->
    read lo hi t (slot k a) = Some {| rkey := k; ratt := a; rloc := rloc r |}.
  Proof.
    intros R K. apply rk_eqb_spec in K. destruct K as [K1 K2]. rewrite R. destruct r; cbn in *; subst; reflexivity.
  Qed.

  Lemma nocand_at lo hi t k a (q : rec) l' :
    read lo hi t (slot k a) = Some q -> rk_eqb key key_eqb q k a = false ->
    read lo hi t (slot k a) <> Some {| rkey := k; ratt := a; rloc := l' |}.
  Proof.
    intros R K C'. rewrite R in C'. injection C' as ->.
    unfold Klm.rk_eqb in K. cbn in K. rewrite key_eqb_refl, Nat.eqb_refl in K. discriminate.
  Qed.

  Lemma get_loop_first lo hi t k : forall fuel a0 l att,
    get_loop lo hi t k fuel a0 = GFound l att ->
    exists a, a0 <= a /\ read lo hi t (slot k a) = Some {| rkey := k; ratt := a; rloc := l |}
              /\ forall a' l', a0 <= a' -> a' < a -> read lo hi t (slot k a') <> Some {| rkey := k; ratt := a'; rloc := l' |}.
  Proof.
    induction fuel as [|f IH]; intros a0 l att H; cbn [Klm.get_loop] in H;
      destruct (read lo hi t (slot k a0)) as [r|] eqn:R; try discriminate;
      destruct (rk_eqb key key_eqb r k a0) eqn:K; try discriminate.
    1,2: inversion H; subst; exists a0; split; [constructor|]; split;
      [exact (read_found _ _ _ _ _ _ R K)|intros a' l' H1 H2; destruct (Nat.lt_irrefl _ (Nat.le_lt_trans _ _ _ H1 H2))].
    destruct (IH _ _ _ H) as [a [Ha [Ca Hn]]]. exists a. split; [apply Nat.lt_le_incl; exact Ha|]. split; [assumption|].
    intros a' l' H1 H2 C. destruct (proj1 (Nat.le_lteq _ _) H1) as [Cx|Cx].
    - eapply Hn; eauto.
    - subst a'. exact (nocand_at _ _ _ _ _ _ _ R K C).
  Qed.

  Definition StoredIn (P : key -> loc -> Prop) (t : table) : Prop :=
    forall i r, nth i t None = Some r -> P (rkey r) (rloc r).

  Lemma stored_upd P t s r : StoredIn P t -> P (rkey r) (rloc r) -> StoredIn P (upd t s (Some r)).
  Proof.
    intros HS Hr i q H. apply nth_upd_some in H. destruct H as [H|H].
    - injection H as <-. assumption.
    - eapply HS; eassumption.
  Qed.

  Lemma put_loop_stored P lo hi t r t' o :
    PutLoop lo hi t r t' o -> StoredIn P t -> P (rkey r) (rloc r) -> StoredIn P t'.
  Proof.
    induction 1; intros HS Hr;
      [exact HS|apply stored_upd; assumption|apply stored_upd; assumption|exact HS|apply stored_upd; assumption
      | |exact HS|apply IHPutLoop; assumption].
    apply IHPutLoop; [apply stored_upd; assumption|]. apply read_some in R. destruct R as [R _]. exact (HS _ _ R).
  Qed.

  Lemma run_stored P h : forall s s',
    StoredIn P (tbl s) -> (forall k l, In (OPut k l) h -> P k l) -> run s h = Some s' -> StoredIn P (tbl s').
  Proof.
    induction h as [|o h IH]; intros s s' HS HP H; cbn in H.
    - injection H as <-. exact HS.
    - destruct (step s o) as [s1|] eqn:E; [|discriminate].
      apply (IH s1 s'); [|intros k l Hin; apply HP; right; exact Hin|exact H].
      destruct o as [k l|k| |]; cbn in E.
      + destruct (valid (lo s) (hi s) l); [|discriminate]. injection E as <-.
        unfold Klm.klm_put. destruct (put (lo s) (hi s) (tbl s) k l) as [t' o'] eqn:E.
        apply put_spec in E. cbn. eapply put_loop_stored; [exact E|exact HS|]. apply HP. left. reflexivity.
      + injection E as <-. exact HS.
      + destruct (lo s <? hi s)%N; [|discriminate]. injection E as <-. exact HS.
      + injection E as <-. exact HS.
  Qed.

  (** [get_sound] of Props/C06.v: a lookup returns only a location that was
      stored for exactly that key, in a block that has not been released. *)
  Theorem get_sound_thm : forall h0 h s k l,
    run (klm_empty key n h0) h = Some s -> lookup s k = Some l ->
    In (OPut k l) h /\ valid (lo s) (hi s) l = true.
  Proof.
    intros h0 h s k l Hrun Hl.
    unfold Klm.lookup, Klm.klm_get, Klm.get in Hl.
    destruct (get_loop (lo s) (hi s) (tbl s) k (pred maxGet) 0) as [l' att| |] eqn:G; cbn in Hl; try discriminate.
    injection Hl as ->. apply get_loop_first in G. destruct G as [a' [_ [R _]]].
    apply read_some in R. destruct R as [Rn Rv]. cbn in Rv. split; [|assumption].
    assert (S0 : StoredIn (fun k l => In (OPut k l) h) (tbl (klm_empty key n h0))).
    { intros i r Hn. cbn in Hn. rewrite nth_repeat in Hn. discriminate. }
    exact (run_stored _ h _ s S0 (fun k l H => H) Hrun _ _ Rn).
  Qed.

  Definition keep_valid (lo hi : N) (o : option loc) : option loc :=
    match o with Some l => if valid lo hi l then Some l else None | None => None end.

  Lemma read_release lo hi t i :
    read (N.succ lo) hi t i
    = match read lo hi t i with
      | Some r => if valid (N.succ lo) hi (rloc r) then Some r else None
      | None => None
      end.
  Proof.
    unfold Klm.read. destruct (nth i t None) as [r|]; [|reflexivity].
    destruct (valid lo hi (rloc r)) eqn:V; [reflexivity|].
    rewrite (valid_release_false _ _ _ V). reflexivity.
  Qed.

  Lemma get_loop_release lo hi t k : Inv lo hi t -> forall fuel a,
    lookup_of (get_loop (N.succ lo) hi t k fuel a)
    = keep_valid (N.succ lo) hi (lookup_of (get_loop lo hi t k fuel a)).
  Proof.
    intros [_ [_ [_ Ho]]].
    induction fuel as [|f IH]; intros a; cbn [Klm.get_loop]; rewrite read_release;
      destruct (read lo hi t (slot k a)) as [r|] eqn:R; try reflexivity;
      destruct (valid (N.succ lo) hi (rloc r)) eqn:V'; destruct (rk_eqb key key_eqb r k a) eqn:K;
      cbn [lookup_of keep_valid]; rewrite ?V'; try reflexivity.
    - apply IH.
    - (* r is released and the old lookup goes on: whatever it finds is not newer than r, hence released too *)
      destruct (get_loop lo hi t k f (S a)) as [l att| |] eqn:G; cbn [lookup_of keep_valid]; try reflexivity.
      apply get_loop_first in G. destruct G as [a' [Ha' [Rq _]]].
      destruct (Ho _ _ Rq a) as [r' [Hr' Hold]]; [exact Ha'|]. cbn [rkey ratt rloc] in Hr', Hold.
      rewrite R in Hr'. injection Hr' as <-. apply read_some in R. destruct R as [_ Rv].
      replace (valid (N.succ lo) hi l) with false; [reflexivity|]. symmetry. clear - Hold Rv V'. ord.
  Qed.

  Theorem release_exact_state s k :
    InvS s -> lookup (klm_release key s) k = keep_valid (N.succ (lo s)) (hi s) (lookup s k).
  Proof. intros HI. exact (get_loop_release (lo s) (hi s) (tbl s) k HI (pred maxGet) 0). Qed.

  Lemma get_loop_grow lo hi t k : Bounded hi t -> forall fuel a,
    get_loop lo (N.succ hi) t k fuel a = get_loop lo hi t k fuel a.
  Proof.
    intros Hb. induction fuel as [|f IH]; intros a; cbn [Klm.get_loop]; rewrite read_grow by assumption.
    - reflexivity.
    - destruct (read lo hi t (slot k a)); [|reflexivity]. destruct (rk_eqb _ _ _ _ _); [reflexivity|]. apply IH.
  Qed.

  Theorem grow_frame_state s k : InvS s -> lookup (klm_grow key s) k = lookup s k.
  Proof.
    intros [_ [_ [Hb _]]]. unfold Klm.lookup, Klm.klm_get, Klm.get. cbn [lo hi tbl Klm.klm_grow].
    rewrite get_loop_grow by assumption. reflexivity.
  Qed.

  Lemma put_loop_dropped lo hi l t r t' o d :
    PutLoop lo hi t r t' o -> older l (rloc r) = false -> discarded o = Some d -> older l (rloc d) = false.
  Proof.
    induction 1; intros Hr D; try discriminate D.
    - injection D as <-. exact Hr.
    - injection D as <-. exact (older_nolder_trans _ _ _ O Hr).
    - apply IHPutLoop; [|exact D]. exact (older_nolder_trans _ _ _ O Hr).
    - injection D as <-. exact Hr.
    - apply IHPutLoop; assumption.
  Qed.
End Proofs.
