(** Model-level statements of the C04A clauses and the liveness of clause 3:
    callers that keep the protocol never see a panic and use counts are exact;
    a block's region returns to the free list as soon as its owner has released
    it and its readers / writers are finished, and NewBlock() then hands it out
    within (length of the free list) calls. *)
From Coq Require Import List ZArith Bool Lia Permutation Arith.
From BBS Require Import Alloc.BDA Alloc.BDAProofs.
Import ListNotations.
Open Scope Z_scope.

(** the caller keeps the protocol along the whole sequence *)
Fixpoint proto_ok (c : acfg) (a : ast) (ops : list op) : bool :=
  match ops with
  | [] => true
  | o :: r => okop c a o && proto_ok c (fst (step c a o)) r
  end.

Definition steps (c : acfg) (a : ast) (ops : list op) : ast :=
  fold_left (fun a o => fst (step c a o)) ops a.

Lemma exec_proto c : forall ops a, inv c a -> inv2 a -> proto_ok c a ops = true ->
  fst (exec c a ops) = steps c a ops /\ panicked (snd (exec c a ops)) = false
  /\ inv c (steps c a ops) /\ inv2 (steps c a ops).
Proof.
  induction ops as [|o ops IH]; intros a Hi Hj Hp; [cbn; auto|].
  cbn [proto_ok] in Hp. apply andb_true_iff in Hp. destruct Hp as [Hok Hp].
  pose proof (step_inv c a o Hi) as Hi'. destruct (step_inv2 c a o Hj Hok) as [Hj' Hnp].
  cbn [steps fold_left]. destruct (step c a o) as [a' r] eqn:Es. cbn [fst snd] in *.
  rewrite (exec_cons c a o ops a' r Es Hnp). specialize (IH a' Hi' Hj' Hp). fold (steps c a' ops).
  destruct (exec c a' ops) as [a'' rs]. cbn [fst snd] in *. rewrite (panicked_cons r rs Hnp). exact IH.
Qed.

(** indices of the readers / writers of block [h] that are not finished *)
Fixpoint open_idx (h : nat) (i : nat) (ps : list pin) : list nat :=
  match ps with
  | [] => []
  | p :: r => (if Nat.eqb (p_h p) h && p_open p then [i] else []) ++ open_idx h (S i) r
  end.

Lemma open_idx_length h i ps : length (open_idx h i ps) = count_open h ps.
Proof.
  revert i; induction ps as [|p r IH]; intros i; [reflexivity|].
  cbn [open_idx]. rewrite app_length, IH, count_open_cons.
  destruct (Nat.eqb (p_h p) h && p_open p); reflexivity.
Qed.

Lemma open_idx_in h i ps q : In q (open_idx h i ps) ->
  (i <= q)%nat /\ exists pn, nth_error ps (q - i) = Some pn /\ p_h pn = h /\ p_open pn = true.
Proof.
  revert i; induction ps as [|p r IH]; intros i H; [contradiction|].
  cbn [open_idx] in H. apply in_app_or in H. destruct H as [H|H].
  - destruct (Nat.eqb (p_h p) h && p_open p) eqn:E; [|contradiction].
    destruct H as [<-|[]]. split; [lia|]. rewrite Nat.sub_diag. exists p. cbn.
    apply andb_true_iff in E. destruct E as [E1 E2]. apply Nat.eqb_eq in E1. auto.
  - destruct (IH _ H) as (Hl & pn & Hn & Hh & Ho). split; [lia|]. exists pn.
    replace (q - i)%nat with (S (q - S i)) by lia. cbn. auto.
Qed.

Lemma open_idx_NoDup h i ps : NoDup (open_idx h i ps).
Proof.
  revert i; induction ps as [|p r IH]; intros i; [constructor|].
  cbn [open_idx]. destruct (Nat.eqb (p_h p) h && p_open p); cbn [app]; [|apply IH].
  constructor; [|apply IH]. intros H. apply open_idx_in in H. lia.
Qed.

Lemma fin_free_mono c a p x : In x (a_free a) -> In x (a_free (fst (step c a (OFin p)))).
Proof.
  intros H. cbn [step]. destruct (nth_error (a_pins a) p) as [pn|]; auto.
  destruct (negb (p_open pn)); auto. destruct (nth_error (a_blks a) (p_h pn)) as [b|]; auto.
  unfold release. destruct (b_use b - 1 <? 0); auto. cbn.
  destruct (b_use b - 1 =? 0); auto. apply in_or_app; auto.
Qed.

(** finishing the readers / writers of a block its owner has released: the
    last reference to go puts the region on the free list *)
Lemma finish_pins c : forall ps a h b,
  inv2 a -> nth_error (a_blks a) h = Some b -> b_rel b = true ->
  b_pins b = length ps -> NoDup ps ->
  (forall p, In p ps -> exists pn, nth_error (a_pins a) p = Some pn /\ p_h pn = h /\ p_open pn = true) ->
  (ps = [] -> In (b_off b) (a_free a)) ->
  In (b_off b) (a_free (steps c a (map OFin ps))).
Proof.
  induction ps as [|p ps IH]; intros a h b Hj Eb Hr Hn Hnd Hps H0; [exact (H0 eq_refl)|].
  destruct (Hps p (or_introl eq_refl)) as (pn & Ep & <- & Ho).
  pose proof (use_ok_nth _ _ _ Hj Eb) as Hu. unfold use_ok in Hu. rewrite Hr, Hn in Hu. cbn [length] in Hu.
  destruct (step_inv2 c a (OFin p) Hj eq_refl) as [Hj' _].
  cbn [map steps fold_left]. fold (steps c (fst (step c a (OFin p))) (map OFin ps)).
  rewrite (step_fin c a p pn b Ep Ho Eb) in * by lia. cbn [fst] in *.
  inversion Hnd as [|p' ps' Hnin Hnd']; subst.
  apply (IH _ (p_h pn) (unpin_blk (set_use (b_use b - 1) b))); auto.
  - cbn [a_blks]. rewrite nth_error_upd, Nat.eqb_refl, Eb. reflexivity.
  - cbn. rewrite Hn. reflexivity.
  - intros p' Hp'. destruct (Hps p' (or_intror Hp')) as (pn' & Ep' & Hh' & Ho').
    exists pn'. cbn [a_pins]. rewrite nth_error_upd.
    destruct (Nat.eqb p p') eqn:E; auto. apply Nat.eqb_eq in E. subst p'. contradiction.
  - intros ->. apply (unref_frees (p_h pn) b a). cbn [length] in Hu. lia.
Qed.

Lemma steps_fin_mono c ps a x : In x (a_free a) -> In x (a_free (steps c a (map OFin ps))).
Proof.
  revert a; induction ps as [|p ps IH]; intros a H; [exact H|].
  cbn [map steps fold_left]. apply IH. apply fin_free_mono. exact H.
Qed.

(** liveness of clause 3, at any state a protocol-keeping caller can reach *)
Lemma release_then_finish c a h b :
  inv c a -> inv2 a -> nth_error (a_blks a) h = Some b -> b_rel b = false ->
  let ext := ORel h :: map OFin (open_idx h 0 (a_pins a)) in
  proto_ok c a ext = true /\ In (b_off b) (a_free (steps c a ext)).
Proof.
  intros Hi Hj Eb Hr ext. split.
  - cbn [ext proto_ok okop]. rewrite Eb, Hr. cbn [negb andb].
    generalize (fst (step c a (ORel h))). induction (open_idx h 0 (a_pins a)); intros; cbn; auto.
  - pose proof (use_ok_nth _ _ _ Hj Eb) as Hu. unfold use_ok in Hu. rewrite Hr in Hu.
    assert (Hok : okop c a (ORel h) = true) by (cbn; rewrite Eb, Hr; reflexivity).
    destruct (step_inv2 c a (ORel h) Hj Hok) as [Hj' _].
    cbn [ext steps fold_left]. fold (steps c (fst (step c a (ORel h))) (map OFin (open_idx h 0 (a_pins a)))).
    rewrite (step_rel c a h b Eb) in * by lia. cbn [fst] in *.
    destruct Hj as (_ & H2 & _). pose proof (H2 _ _ Eb) as Hn. rewrite <- (open_idx_length h 0) in Hn.
    apply (finish_pins c _ _ h (set_rel (set_use (b_use b - 1) b))); auto.
    + cbn [a_blks]. rewrite nth_error_upd, Nat.eqb_refl, Eb. reflexivity.
    + apply open_idx_NoDup.
    + intros p Hp. apply open_idx_in in Hp. rewrite Nat.sub_0_r in Hp. apply Hp.
    + intros E. rewrite E in Hn. apply (unref_frees h b a). cbn [length] in Hn. lia.
Qed.

(** NewBlock() until it fails hands out exactly the free list, front first *)
Lemma drain_hands_out_free c : forall fuel a, (length (a_free a) < fuel)%nat ->
  snd (drain c fuel a) = map RHanded (a_free a) ++ [RUnavail].
Proof.
  induction fuel as [|f IH]; intros a Hl; [lia|].
  cbn [drain step]. destruct (a_free a) as [|x f'] eqn:Ef; [reflexivity|].
  set (a' := mkA f' _ _ _). specialize (IH a'). cbn [a_free a'] in IH. cbn [length] in Hl.
  destruct (drain c f a') as [a'' rs]. cbn [snd] in *. rewrite IH by lia. reflexivity.
Qed.

Lemma new_block_unavailable_iff c a : snd (step c a ONew) = RUnavail <-> a_free a = [].
Proof. cbn [step]. destruct (a_free a); cbn; split; intros; try reflexivity; discriminate. Qed.

Lemma no_free_all_live c a : inv c a -> a_free a = [] -> Permutation (live_offs a) (regions c).
Proof. intros [HP _] E. rewrite E in HP. exact HP. Qed.

Lemma at_location_iff c a off size wo : wf_cfg c -> inv c a ->
  (exists x, snd (step c a (OAt off size wo)) = RHanded x)
  <-> (exists x, In x (regions c) /\ ~ In x (live_offs a)
                 /\ x * c_sector c = off /\ c_spb c * c_sector c = size).
Proof.
  intros Hc Hi. cbn [step]. split.
  - intros (x & H). destruct (take_at _ _) as [[y f']|] eqn:Et; [|discriminate].
    cbn in H. inversion H; subst y. destruct (take_at_some _ _ _ _ Et) as [HP Hm].
    assert (Hx : In x (a_free a)) by (eapply Permutation_in; [exact HP|left; reflexivity]).
    destruct (free_not_live c a x Hc Hi Hx). apply at_match_iff in Hm. exists x. tauto.
  - intros (x & Hr & Hl & Ho & Hs). destruct (take_at _ _) as [[y f']|] eqn:Et; [cbn; eauto|].
    exfalso. destruct (region_free_or_live c a x Hi Hr) as [Hf|]; [|contradiction].
    pose proof (take_at_none _ _ Et x Hf) as Hm. rewrite (proj2 (at_match_iff c off size x)) in Hm by auto.
    discriminate.
Qed.

Lemma at_location_region c a off size wo x :
  snd (step c a (OAt off size wo)) = RHanded x -> x * c_sector c = off.
Proof.
  cbn [step]. destruct (take_at _ _) as [[y f']|] eqn:Et; [|discriminate]. intros H. inversion H; subst.
  destruct (take_at_some _ _ _ _ Et) as [_ Hm]. apply at_match_iff in Hm. tauto.
Qed.

(** the state after [ops] from the freshly constructed allocator *)
Definition reach (c : acfg) (ops : list op) : ast := fst (exec c (init_a c) ops).

Lemma reach_inv c ops : inv c (reach c ops).
Proof. apply exec_inv, inv_init. Qed.

Lemma reach_inv2 c ops : proto_ok c (init_a c) ops = true -> inv2 (reach c ops).
Proof.
  intros Hp. destruct (exec_proto c ops _ (inv_init c) (inv2_init c) Hp) as (E & _ & _ & Hj).
  unfold reach. rewrite E. exact Hj.
Qed.

Lemma live_block_in_live_offs a h b :
  nth_error (a_blks a) h = Some b -> 0 < b_use b -> In (b_off b) (live_offs a).
Proof.
  intros Eb Hu. unfold live_offs. apply in_map. apply filter_In. split.
  - eapply nth_error_In; eauto.
  - apply Z.ltb_lt. exact Hu.
Qed.

Theorem proto_use_exact c a ops : inv c a -> inv2 a -> proto_ok c a ops = true ->
  let a' := fst (exec c a ops) in
  panicked (snd (exec c a ops)) = false /\
  forall h b, nth_error (a_blks a') h = Some b ->
    b_use b = (if b_rel b then 0 else 1) + Z.of_nat (count_open h (a_pins a')).
Proof.
  intros Hi Hj Hp a'. destruct (exec_proto c ops a Hi Hj Hp) as (E & Hn & _ & Hj').
  split; [exact Hn|]. intros h b Eb. unfold a' in *. rewrite E in Eb |- *.
  pose proof (use_ok_nth _ _ _ Hj' Eb) as Hu. destruct Hj' as (_ & H2 & _).
  rewrite <- (H2 _ _ Eb). exact Hu.
Qed.

Theorem handed_not_live c a o a' x : wf_cfg c -> inv c a ->
  step c a o = (a', RHanded x) -> In x (regions c) /\ ~ In x (live_offs a).
Proof.
  intros Hc Hi H. apply handed_is_free in H. destruct (free_not_live c a x Hc Hi H). auto.
Qed.

Theorem handed_handles_dead c a o a' x h b : wf_cfg c -> inv c a -> inv2 a ->
  step c a o = (a', RHanded x) -> nth_error (a_blks a) h = Some b -> b_off b = x ->
  b_rel b = true /\ count_open h (a_pins a) = O.
Proof.
  intros Hc Hi Hj Hs Eb Ho.
  destruct (handed_not_live c a o a' x Hc Hi Hs) as [_ Hnl].
  pose proof (use_ok_nth _ _ _ Hj Eb) as Hu. unfold use_ok in Hu.
  destruct Hj as (_ & H2 & _). rewrite <- (H2 _ _ Eb).
  assert (Hle : ~ 0 < b_use b).
  { intros H. apply Hnl. rewrite <- Ho. eapply live_block_in_live_offs; eauto. }
  destruct (b_rel b); split; try reflexivity; lia.
Qed.

Theorem new_block_cases c a : wf_cfg c -> inv c a ->
  (snd (step c a ONew) = RUnavail -> Permutation (live_offs a) (regions c))
  /\ ((exists x, In x (regions c) /\ ~ In x (live_offs a)) ->
      exists y, snd (step c a ONew) = RHanded y /\ ~ In y (live_offs a)).
Proof.
  intros Hc Hi. split.
  - intros H. apply new_block_unavailable_iff in H. apply no_free_all_live; auto.
  - intros (x & Hr & Hl). destruct (region_free_or_live c a x Hi Hr) as [Hf|]; [|contradiction].
    cbn [step]. destruct (a_free a) as [|y f'] eqn:Ef; [contradiction|]. exists y. split; [reflexivity|].
    apply (free_not_live c a y Hc Hi). rewrite Ef. left; reflexivity.
Qed.

Theorem release_liveness c a h b : inv c a -> inv2 a ->
  nth_error (a_blks a) h = Some b -> b_rel b = false ->
  let ext := ORel h :: map OFin (open_idx h 0 (a_pins a)) in
  let a' := fst (exec c a ext) in
  panicked (snd (exec c a ext)) = false
  /\ In (b_off b) (a_free a')
  /\ In (RHanded (b_off b)) (snd (drain c (S (c_n c)) a')).
Proof.
  intros Hi Hj Eb Hr. cbv zeta.
  destruct (release_then_finish c _ h b Hi Hj Eb Hr) as [Hp' Hin].
  destruct (exec_proto c _ _ Hi Hj Hp') as (E' & Hn' & Hi' & _).
  rewrite E'. split; [exact Hn'|]. split; [exact Hin|].
  rewrite drain_hands_out_free by (pose proof (inv_free_length c _ Hi'); lia).
  apply in_or_app. left. apply in_map. exact Hin.
Qed.
