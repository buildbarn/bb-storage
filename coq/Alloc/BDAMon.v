(** The C04A monitor (Run/R04A.v) never fires on the model: for EVERY
    geometry and EVERY sequence of calls (also those that break the caller's
    protocol), [mon04A inp (run04A inp) = []].

    The monitor's state is a function [abs] of the model's state as long as the
    caller keeps the protocol; at the first breach the monitor stops. *)
From Coq Require Import List ZArith Bool Lia Permutation Arith.
From BBS Require Import Common.Sx Alloc.BDA Alloc.BDAProofs Run.R04A.
Import ListNotations.
Open Scope Z_scope.

Definition abs_h (c : acfg) (b : blk) : mh := mkMh (b_off b * c_sector c) (b_rel b) (b_pins b).
Definition abs_p (p : pin) : nat * bool := (p_h p, p_open p).
Definition abs (c : acfg) (a : ast) : mst :=
  mkM (map (abs_h c) (a_blks a)) (map abs_p (a_pins a)) [] false.

Lemma zmem_In x l : zmem x l = true <-> In x l.
Proof.
  unfold zmem. rewrite existsb_exists. split.
  - intros (y & Hy & E). apply Z.eqb_eq in E. subst; auto.
  - intros H. exists x. split; auto. apply Z.eqb_refl.
Qed.

Lemma zmem_false x l : zmem x l = false <-> ~ In x l.
Proof. rewrite <- zmem_In. destruct (zmem x l); split; intros; try discriminate; auto. exfalso; auto. Qed.

Lemma regions_b_eq c : regions_b c = map (fun o => o * c_sector c) (regions c).
Proof. unfold regions_b, regions. rewrite map_map. reflexivity. Qed.

Lemma in_scaled s x l : 0 < s -> In (x * s) (map (fun o => o * s) l) <-> In x l.
Proof.
  intros Hs. rewrite in_map_iff. split.
  - intros (y & E & Hy). assert (y = x) by nia. subst; auto.
  - intros H. exists x; auto.
Qed.

Lemma live_regs_abs c a : inv2 a ->
  live_regs (abs c a) = map (fun o => o * c_sector c) (live_offs a).
Proof.
  intros (H1 & _). unfold live_regs, live_offs, abs. cbn [ms_h].
  induction H1 as [|b l Hb Hl IH]; [reflexivity|]. cbn.
  replace (mh_live (abs_h c b)) with (0 <? b_use b).
  - destruct (0 <? b_use b); cbn; rewrite IH; reflexivity.
  - unfold mh_live, abs_h, use_ok in *. cbn. rewrite Hb.
    destruct (b_rel b), (b_pins b); cbn; try reflexivity.
    all: try (apply Z.ltb_lt; lia).
Qed.

Lemma add_viol_nil m : add_viol m [] = m.
Proof. destruct m; unfold add_viol; cbn. rewrite app_nil_r. reflexivity. Qed.

Lemma abs_hand c a x f' wos :
  mkM (ms_h (abs c a) ++ [mkMh (x * c_sector c) false 0]) (ms_p (abs c a)) [] false
  = abs c (mkA f' (a_blks a ++ [mkBlk x 1 wos 0 false 0]) (a_pins a) (a_nfreed a)).
Proof. unfold abs. cbn. rewrite map_app. reflexivity. Qed.

(** a hand-out of a free region is accepted: clauses 1 and 5 *)
Lemma mon_hand_free c a x f' wos : wf_cfg c -> inv c a -> inv2 a -> In x (a_free a) ->
  mon_hand c (abs c a) (x * c_sector c) (c_spb c * c_sector c) (x * c_sector c)
  = abs c (mkA f' (a_blks a ++ [mkBlk x 1 wos 0 false 0]) (a_pins a) (a_nfreed a)).
Proof.
  intros Hc Hi Hj Hx. destruct (free_not_live c a x Hc Hi Hx) as [Hnl Hr].
  unfold mon_hand. rewrite live_regs_abs by exact Hj.
  replace (zmem (x * c_sector c) (map (fun o => o * c_sector c) (live_offs a))) with false.
  2:{ symmetry. apply zmem_false. rewrite in_scaled by apply Hc. exact Hnl. }
  replace (zmem (x * c_sector c) (regions_b c)) with true.
  2:{ symmetry. apply zmem_In. rewrite regions_b_eq, in_scaled by apply Hc. exact Hr. }
  unfold bs_of. rewrite !Z.eqb_refl. cbn [andb app]. rewrite <- abs_hand. reflexivity.
Qed.

Lemma all_live_full c a : wf_cfg c -> inv c a -> inv2 a -> a_free a = [] -> all_live c (abs c a) = true.
Proof.
  intros Hc Hi Hj Hf. unfold all_live. rewrite forallb_forall. intros r Hr.
  rewrite live_regs_abs by exact Hj. rewrite regions_b_eq, in_map_iff in Hr.
  destruct Hr as (x & <- & Hx). apply zmem_In. rewrite in_scaled by apply Hc.
  destruct (region_free_or_live c a x Hi Hx) as [H|H]; auto. rewrite Hf in H. contradiction.
Qed.

(** the location designates a region without live handle <-> the code finds it *)
Lemma want_iff c a off size : wf_cfg c -> inv c a -> inv2 a ->
  zmem off (regions_b c) && (size =? bs_of c) && negb (zmem off (live_regs (abs c a))) = true
  <-> exists x, In x (a_free a) /\ at_match c off size x = true.
Proof.
  intros Hc Hi Hj. rewrite live_regs_abs by exact Hj. rewrite !andb_true_iff, negb_true_iff.
  rewrite zmem_In, zmem_false, Z.eqb_eq, regions_b_eq. unfold bs_of. split.
  - intros [[Hr Hs] Hl]. rewrite in_map_iff in Hr. destruct Hr as (x & <- & Hx).
    rewrite in_scaled in Hl by apply Hc. exists x. split.
    + destruct (region_free_or_live c a x Hi Hx); auto. contradiction.
    + apply at_match_iff. auto.
  - intros (x & Hx & Hm). apply at_match_iff in Hm. destruct Hm as [<- <-].
    destruct (free_not_live c a x Hc Hi Hx) as [Hnl Hr]. rewrite !in_scaled by apply Hc. auto.
Qed.

Lemma nth_abs_h c a h : nth_error (ms_h (abs c a)) h = option_map (abs_h c) (nth_error (a_blks a) h).
Proof. unfold abs. cbn. apply nth_error_map. Qed.

Lemma nth_abs_p c a p : nth_error (ms_p (abs c a)) p = option_map abs_p (nth_error (a_pins a) p).
Proof. unfold abs. cbn. apply nth_error_map. Qed.

Lemma on_owned_abs c a h ob k :
  on_owned (abs c a) h ob k =
  match nth_error (a_blks a) h with
  | None => abs c a
  | Some b => if b_rel b then stopped (abs c a)
              else match ob with BPanic => stopped (add_viol (abs c a) [6]) | _ => k end
  end.
Proof. unfold on_owned. rewrite nth_abs_h. destruct (nth_error (a_blks a) h); reflexivity. Qed.

(** [abs] sees the free list and the counter not at all, and a change of one
    block only through [abs_h] *)
Lemma abs_upd c a h f g fr ps nf : (forall x, abs_h c (f x) = g (abs_h c x)) ->
  abs c (mkA fr (upd h f (a_blks a)) ps nf) = mkM (upd h g (ms_h (abs c a))) (map abs_p ps) [] false.
Proof. intros H. unfold abs. cbn [a_blks a_pins ms_h]. rewrite (map_upd _ f g) by exact H. reflexivity. Qed.

(** one call, protocol kept: the monitor follows the model *)
Lemma mon_step_ok c cl a o : wf_cfg c -> inv c a -> inv2 a -> okop c a o = true ->
  mon_step c cl (abs c a) (o, res_ob c (snd (step c a o))) = abs c (fst (step c a o)).
Proof.
  intros Hc Hi Hj Hok.
  (* the call is split first: unfolded on a variable, [mon_step] would carry all
     its branches, each with the observation in it, through every later step *)
  destruct o; unfold mon_step; change (ms_stop (abs c a)) with false; cbv iota.
  - (* NewBlock *)
    cbn [step]. destruct (a_free a) as [|x f'] eqn:Ef; cbn [fst snd res_ob].
    + rewrite (all_live_full c a Hc Hi Hj Ef). apply add_viol_nil.
    + apply mon_hand_free; auto. rewrite Ef. left; reflexivity.
  - (* NewBlockAtLocation *)
    pose proof (want_iff c a off size Hc Hi Hj) as Hw. cbn [step].
    destruct (take_at (at_match c off size) (a_free a)) as [[x f']|] eqn:Et; cbn [fst snd res_ob].
    + destruct (take_at_some _ _ _ _ Et) as [HP Hm].
      assert (Hx : In x (a_free a)) by (eapply Permutation_in; [exact HP|left; reflexivity]).
      rewrite (proj2 Hw) by eauto.
      apply at_match_iff in Hm. destruct Hm as [Hm1 Hm2].
      rewrite Hm1, Z.eqb_refl. cbn [andb]. rewrite add_viol_nil. rewrite <- Hm1.
      apply mon_hand_free; auto.
    + destruct (zmem off (regions_b c) && (size =? bs_of c) && negb (zmem off (live_regs (abs c a)))) eqn:E.
      * exfalso. destruct (proj1 Hw eq_refl) as (x & Hx & Hm).
        rewrite (take_at_none _ _ Et x Hx) in Hm. discriminate.
      * apply add_viol_nil.
  - (* Release by the owner *)
    rewrite on_owned_abs. cbn [okop] in Hok.
    destruct (nth_error (a_blks a) h) as [b|] eqn:Eb; [|cbn [step]; rewrite Eb; reflexivity].
    apply negb_true_iff in Hok. rewrite Hok.
    rewrite (step_rel c a h b Eb) by (apply (use_ok_live b (use_ok_nth a h b Hj Eb)); auto).
    cbn [fst snd res_ob]. symmetry. apply abs_upd. reflexivity.
  - (* Get *)
    rewrite on_owned_abs. cbn [okop] in Hok.
    destruct (nth_error (a_blks a) h) as [b|] eqn:Eb; [|cbn [step]; rewrite Eb; reflexivity].
    apply negb_true_iff in Hok. rewrite Hok.
    rewrite (step_get c a h b Eb) by (apply (use_ok_live b (use_ok_nth a h b Hj Eb)); auto).
    cbn [fst snd res_ob]. rewrite (abs_upd c a h pin_blk mh_pin), map_app by reflexivity. reflexivity.
  - (* HasSpace / Put *)
    cbn [okop] in Hok.
    destruct (nth_error (a_blks a) h) as [b|] eqn:Eb; [|cbn [step]; rewrite Eb; reflexivity].
    destruct (size <? 0) eqn:Hs; [cbn [step]; rewrite Eb, Hs; reflexivity|].
    destruct (has_space c b size) eqn:Hh; [|cbn [step]; rewrite Eb, Hs, Hh; reflexivity].
    rewrite !orb_false_r in Hok. apply negb_true_iff in Hok.
    rewrite (step_put c a h size b Eb Hs Hh) by (apply (use_ok_live b (use_ok_nth a h b Hj Eb)); auto).
    cbn [fst snd res_ob]. rewrite on_owned_abs, Eb, Hok.
    rewrite (abs_upd c a h _ mh_pin), map_app by reflexivity. reflexivity.
  - (* finish a reader / writer *)
    rewrite nth_abs_p.
    destruct (nth_error (a_pins a) p) as [pn|] eqn:Ep; [|cbn [step]; rewrite Ep; reflexivity].
    cbn [option_map abs_p].
    destruct (p_open pn) eqn:Ho; [|cbn [step]; rewrite Ep, Ho; reflexivity].
    destruct (nth_error (a_blks a) (p_h pn)) as [b|] eqn:Eb.
    2:{ exfalso. destruct Hj as (_ & _ & H3). apply nth_error_None in Eb.
        specialize (H3 pn (nth_error_In _ _ Ep)). lia. }
    rewrite (step_fin c a p pn b Ep Ho Eb)
      by (apply (use_ok_live b (use_ok_nth a _ b Hj Eb)); right; exact (open_pin_counts a p pn b Hj Ep Ho Eb)).
    cbn [fst snd res_ob]. rewrite (abs_upd c a _ _ mh_unpin) by reflexivity.
    f_equal. symmetry. apply map_upd. reflexivity.
  - reflexivity.
Qed.

(** the first breach of the protocol: the monitor stops, silently *)
Lemma mon_step_breach c cl a o : okop c a o = false ->
  let m := mon_step c cl (abs c a) (o, res_ob c (snd (step c a o))) in
  ms_stop m = true /\ ms_viol m = [].
Proof.
  intros Hok. destruct (okop_false c a o Hok) as (h & b & Eb & Hr & Ho).
  assert (Hm : forall ob k, on_owned (abs c a) h ob k = stopped (abs c a))
    by (intros; rewrite on_owned_abs, Eb, Hr; reflexivity).
  destruct (step c a o) as [a' r] eqn:Es. cbn [snd].
  destruct Ho as [->|[->|(size & -> & Hs & Hh)]];
    unfold mon_step; change (ms_stop (abs c a)) with false; cbv iota zeta.
  - rewrite Hm. split; reflexivity.
  - rewrite Hm. split; reflexivity.
  - cbn [step] in Es. rewrite Eb, Hs, Hh in Es. cbn [negb] in Es.
    destruct (b_use b + 1 <=? 1); injection Es as _ <-; cbn [res_ob]; rewrite Hm; split; reflexivity.
Qed.

Lemma fold_stopped c cl l m : ms_stop m = true -> fold_left (mon_step c cl) l m = m.
Proof.
  intros H. induction l as [|[o b] l IH]; cbn [fold_left]; [reflexivity|].
  unfold mon_step at 2. rewrite H. exact IH.
Qed.

Lemma mon_exec c : wf_cfg c -> forall ops a, inv c a -> inv2 a ->
  let m := fold_left (mon_step c 2) (combine ops (map (res_ob c) (snd (exec c a ops)))) (abs c a) in
  ms_viol m = [] /\
  (ms_stop m = true \/
   (panicked (snd (exec c a ops)) = false /\ m = abs c (fst (exec c a ops))
    /\ inv c (fst (exec c a ops)) /\ inv2 (fst (exec c a ops)))).
Proof.
  intros Hc. induction ops as [|o ops IH]; intros a Hi Hj.
  - cbn. split; auto.
  - destruct (okop c a o) eqn:Hok.
    + pose proof (mon_step_ok c 2 a o Hc Hi Hj Hok) as Hm.
      pose proof (step_inv c a o Hi) as Hi'.
      destruct (step_inv2 c a o Hj Hok) as [Hj' Hnp].
      destruct (step c a o) as [a' r] eqn:Es. cbn [fst snd] in *.
      rewrite (exec_cons c a o ops a' r Es Hnp).
      specialize (IH a' Hi' Hj'). destruct (exec c a' ops) as [a'' rs]. cbn [fst snd] in *.
      cbn [map combine fold_left]. rewrite Hm.
      destruct IH as [Hv [Hs|(Hp & He & Hi2 & Hj2)]]; split; auto.
      right. split; auto. rewrite panicked_cons; auto.
    + destruct (mon_step_breach c 2 a o Hok) as [Hs Hv].
      destruct (exec_cons_head c a o ops) as (af & rs & E). rewrite E. cbn [snd map combine fold_left].
      rewrite fold_stopped by exact Hs. auto.
Qed.

Lemma mon_drain c : wf_cfg c -> forall fuel a, inv c a -> inv2 a -> (length (a_free a) < fuel)%nat ->
  let ds := map (res_ob c) (snd (drain c fuel a)) in
  fold_left (mon_step c 3) (combine (repeat ONew (length ds)) ds) (abs c a) = abs c (fst (drain c fuel a))
  /\ is_fail (last ds BJunk) = true.
Proof.
  intros Hc. induction fuel as [|f IH]; intros a Hi Hj Hl; [lia|].
  pose proof (mon_step_ok c 3 a ONew Hc Hi Hj eq_refl) as Hm.
  pose proof (step_inv c a ONew Hi) as Hi'.
  destruct (step_inv2 c a ONew Hj eq_refl) as [Hj' _].
  cbn [drain]. cbn [step] in *. destruct (a_free a) as [|x f'] eqn:Ef.
  - cbn [fst snd map length repeat combine fold_left last] in *. rewrite Hm. split; reflexivity.
  - cbn [fst snd] in *.
    set (a' := mkA f' (a_blks a ++ [mkBlk x 1 0 0 false 0]) (a_pins a) (a_nfreed a)) in *.
    assert (Hl' : (length (a_free a') < f)%nat) by (cbn in *; lia).
    specialize (IH a' Hi' Hj' Hl'). destruct (drain c f a') as [a'' rs]. cbn [fst snd] in *.
    cbn [map length repeat combine fold_left]. rewrite Hm. destruct IH as [IH1 IH2]. split; auto.
    destruct (map (res_ob c) rs) as [|d ds'] eqn:Ed; [discriminate|].
    cbn [res_ob last]. exact IH2.
Qed.

Theorem mon_dev_silent c ops : wf_cfg c ->
  mon_dev c ops (fst (fst (run_dev c ops))) (snd (fst (run_dev c ops))) = [].
Proof.
  intros Hc. unfold run_dev.
  pose proof (mon_exec c Hc ops (init_a c) (inv_init c) (inv2_init c)) as H.
  destruct (exec c (init_a c) ops) as [a rs]. cbn [fst snd] in H. destruct H as [Hv Hs].
  destruct (panicked rs) eqn:Ep.
  - cbn [fst snd]. unfold mon_dev. change mon_init with (abs c (init_a c)).
    cbn [length repeat combine fold_left last is_fail].
    rewrite Hv. destruct Hs as [Hs|(Hp & _)]; [rewrite Hs; reflexivity|discriminate].
  - destruct (drain c (S (c_n c)) a) as [a' ds] eqn:Ed. cbn [fst snd]. unfold mon_dev.
    change mon_init with (abs c (init_a c)).
    destruct Hs as [Hs|(_ & He & Hi & Hj)].
    + rewrite fold_stopped by exact Hs. rewrite Hv, Hs. reflexivity.
    + assert (Hl : (length (a_free a) < S (c_n c))%nat) by (pose proof (inv_free_length c a Hi); lia).
      pose proof (mon_drain c Hc (S (c_n c)) a Hi Hj Hl) as Hd. rewrite Ed in Hd. cbn [fst snd] in Hd.
      destruct Hd as [Hd1 Hd2]. rewrite He, Hd1, Hd2. reflexivity.
Qed.

Lemma mon_mem_step_silent bs c a o : mon_mem_step (o, res_ob c (snd (step_mem bs a o))) = [].
Proof.
  destruct o; cbn [step_mem]; try reflexivity.
  - destruct (nth_error _ _); reflexivity.
  - destruct (nth_error _ _); reflexivity.
  - destruct (nth_error _ _); [|reflexivity]. destruct (_ <? _); [reflexivity|]. destruct (negb _); reflexivity.
  - destruct (nth_error _ _); [|reflexivity]. destruct (negb _); reflexivity.
Qed.

Lemma mon_mem_silent bs c ops a :
  flat_map mon_mem_step (combine ops (map (res_ob c) (snd (exec_mem bs a ops)))) = [].
Proof.
  revert a. induction ops as [|o ops IH]; intros a; [reflexivity|].
  cbn [exec_mem]. pose proof (mon_mem_step_silent bs c a o) as Hs.
  destruct (step_mem bs a o) as [a' r]. specialize (IH a'). destruct (exec_mem bs a' ops) as [a'' rs].
  cbn [fst snd map combine flat_map] in *. rewrite Hs, IH. reflexivity.
Qed.

Lemma dec_enc_ob b : dec_ob (enc_ob b) = b.
Proof. destruct b; try reflexivity; cbn; try destruct ok; reflexivity. Qed.

Lemma dec_enc_obs l : map dec_ob (map enc_ob l) = l.
Proof. rewrite map_map. rewrite <- (map_id l) at 2. apply map_ext. exact dec_enc_ob. Qed.

Theorem mon04A_silent inp : mon04A inp (run04A inp) = [].
Proof.
  unfold mon04A, run04A. destruct (wf_cfgb (dec_cfg inp)) eqn:Hw; cbn [negb]; [|reflexivity].
  assert (Hc : wf_cfg (dec_cfg inp)).
  { unfold wf_cfgb in Hw. rewrite andb_true_iff, !Z.ltb_lt in Hw. exact Hw. }
  destruct (dec_kind inp =? 0).
  - pose proof (mon_dev_silent (dec_cfg inp) (dec_ops inp) Hc) as H.
    destruct (run_dev (dec_cfg inp) (dec_ops inp)) as [[os ds] [[x y] z]]. cbn [fst snd] in H.
    unfold enc_run. cbn [sx_nth sx_list nth]. rewrite !dec_enc_obs, H. reflexivity.
  - unfold run_mem.
    pose proof (mon_mem_silent (c_spb (dec_cfg inp) * c_sector (dec_cfg inp)) (dec_cfg inp) (dec_ops inp)
                  (mkA [] [] [] 0)) as H.
    destruct (exec_mem _ _ _) as [a rs]. cbn [fst snd] in H.
    unfold enc_run. cbn [sx_nth sx_list nth sx_Z]. rewrite !dec_enc_obs. unfold mon_mem. rewrite H. reflexivity.
Qed.
