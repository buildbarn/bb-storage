(** Proofs about the allocator accounting model Alloc/BDA.v: the invariant
    "free list ++ regions in use = all regions, without duplicates" for every
    reachable state (ANY sequence of calls, including misuse), exact use
    counts for callers that keep the protocol, and what each call may return. *)
From Coq Require Import List ZArith Bool Lia Permutation Arith.
From BBS Require Import Alloc.BDA.
Import ListNotations.
Open Scope Z_scope.

Lemma upd_length {T} i (f : T -> T) l : length (upd i f l) = length l.
Proof. revert i; induction l as [|x r IH]; intros [|i]; cbn; auto. Qed.

Lemma nth_error_upd {T} i j (f : T -> T) l :
  nth_error (upd i f l) j = if Nat.eqb i j then option_map f (nth_error l j) else nth_error l j.
Proof.
  revert i j; induction l as [|x r IH]; intros [|i] [|j]; cbn; auto.
  all: try (destruct (Nat.eqb i j); reflexivity).
Qed.

Lemma upd_split {T} i (f : T -> T) l b : nth_error l i = Some b ->
  exists l1 l2, l = l1 ++ b :: l2 /\ upd i f l = l1 ++ f b :: l2.
Proof.
  revert i; induction l as [|x r IH]; intros [|i] H; cbn in H; try discriminate.
  - inversion H; subst. exists [], r. auto.
  - destruct (IH _ H) as (l1 & l2 & E & Hu). exists (x :: l1), l2. cbn. rewrite Hu. subst r. auto.
Qed.

Lemma upd_none {T} i (f : T -> T) l : nth_error l i = None -> upd i f l = l.
Proof.
  revert i; induction l as [|x r IH]; intros [|i] H; cbn in *; auto; try discriminate. f_equal; auto.
Qed.

Lemma Forall_upd {T} (P : T -> Prop) i f l :
  Forall P l -> (forall x, nth_error l i = Some x -> P x -> P (f x)) -> Forall P (upd i f l).
Proof.
  intros H. revert i; induction H as [|x r Hx Hr IH]; intros [|i] Hf; cbn; constructor; auto.
Qed.

Lemma In_upd {T} i (f : T -> T) l y : In y (upd i f l) -> exists x, In x l /\ (y = x \/ y = f x).
Proof.
  revert i; induction l as [|x r IH]; intros [|i]; cbn; [contradiction|contradiction| |].
  - intros [<-|H]; eauto.
  - intros [<-|H]; [eauto|]. destruct (IH i H) as (x0 & H0 & E). eauto.
Qed.

Lemma map_upd {T U} (g : T -> U) (f : T -> T) (f' : U -> U) i l :
  (forall x, g (f x) = f' (g x)) -> map g (upd i f l) = upd i f' (map g l).
Proof.
  intros H. revert i; induction l as [|x r IH]; intros [|i]; cbn; auto; f_equal; auto.
Qed.

Lemma last_removelast_perm (r : list Z) : r <> [] -> Permutation (last r 0 :: removelast r) r.
Proof.
  intros H. eapply perm_trans; [apply Permutation_cons_append|].
  rewrite <- app_removelast_last by exact H. reflexivity.
Qed.

Lemma take_at_some p l x l' : take_at p l = Some (x, l') -> Permutation (x :: l') l /\ p x = true.
Proof.
  revert x l'; induction l as [|a r IH]; cbn; intros x l' H; [discriminate|].
  destruct (p a) eqn:E.
  - injection H as <- <-. split; [|exact E]. constructor.
    destruct r as [|z r0]; [reflexivity|]. apply last_removelast_perm. discriminate.
  - destruct (take_at p r) as [[y r']|]; [|discriminate].
    injection H as <- <-. destruct (IH _ _ eq_refl) as [HP Hx]. split; [|exact Hx].
    eapply perm_trans; [apply perm_swap|]. constructor. exact HP.
Qed.

Lemma take_at_none p l : take_at p l = None -> forall x, In x l -> p x = false.
Proof.
  induction l as [|a r IH]; cbn; intros H x Hin; [contradiction|].
  destruct (p a) eqn:E; [discriminate|].
  destruct (take_at p r) as [[y r']|]; [discriminate|].
  destruct Hin as [<-|Hin]; auto.
Qed.

Lemma at_match_iff c off size x :
  at_match c off size x = true <-> x * c_sector c = off /\ c_spb c * c_sector c = size.
Proof. unfold at_match. rewrite andb_true_iff, !Z.eqb_eq. reflexivity. Qed.

Lemma regions_NoDup c : wf_cfg c -> NoDup (regions c).
Proof.
  intros [_ Hs]. unfold regions. apply FinFun.Injective_map_NoDup; [|apply seq_NoDup].
  intros i j H. nia.
Qed.

Lemma regions_length c : length (regions c) = c_n c.
Proof. unfold regions. rewrite map_length, seq_length. reflexivity. Qed.

Definition one (b : blk) : list Z := if 0 <? b_use b then [b_off b] else [].
Definition lo (l : list blk) : list Z := map b_off (filter (fun b => 0 <? b_use b) l).

Lemma live_offs_lo a : live_offs a = lo (a_blks a).
Proof. reflexivity. Qed.

Lemma lo_app l1 l2 : lo (l1 ++ l2) = lo l1 ++ lo l2.
Proof. unfold lo. rewrite filter_app, map_app. reflexivity. Qed.

Lemma lo_cons b l : lo (b :: l) = one b ++ lo l.
Proof. unfold lo, one. cbn. destruct (0 <? b_use b); reflexivity. Qed.

Lemma lo_upd h f l b : nth_error l h = Some b ->
  exists l1 l2, lo l = lo l1 ++ one b ++ lo l2 /\ lo (upd h f l) = lo l1 ++ one (f b) ++ lo l2.
Proof.
  intros H. destruct (upd_split h f l b H) as (l1 & l2 & E & Hu).
  exists l1, l2. rewrite Hu, E, !lo_app, !lo_cons. auto.
Qed.

Lemma lo_upd_same h f l :
  (forall b, nth_error l h = Some b -> one (f b) = one b) -> lo (upd h f l) = lo l.
Proof.
  intros Hf. destruct (nth_error l h) as [b|] eqn:E.
  - destruct (lo_upd h f l b E) as (l1 & l2 & E1 & E2). rewrite E1, E2, (Hf b eq_refl). reflexivity.
  - rewrite upd_none; auto.
Qed.

Lemma one_same b b' :
  b_off b' = b_off b -> b_use b' = b_use b \/ 0 < b_use b <= b_use b' -> one b' = one b.
Proof.
  intros Ho Hu. unfold one. rewrite Ho. destruct Hu as [->|Hu]; [reflexivity|].
  rewrite !(proj2 (Z.ltb_lt _ _)) by lia. reflexivity.
Qed.

(** the accounting invariant: every reachable state, any calls *)
Definition inv (c : acfg) (a : ast) : Prop :=
  Permutation (a_free a ++ live_offs a) (regions c) /\ Forall (fun b => 0 <= b_use b) (a_blks a).

Lemma inv_init c : inv c (init_a c).
Proof. split; [cbn; rewrite app_nil_r; reflexivity|constructor]. Qed.

Lemma inv_NoDup c a : wf_cfg c -> inv c a -> NoDup (a_free a ++ live_offs a).
Proof.
  intros Hc [HP _]. eapply Permutation_NoDup; [symmetry; exact HP|apply regions_NoDup; exact Hc].
Qed.

Lemma inv_hand c a x f' wos :
  inv c a -> Permutation (x :: f') (a_free a) ->
  inv c (mkA f' (a_blks a ++ [mkBlk x 1 wos 0 false 0]) (a_pins a) (a_nfreed a)).
Proof.
  intros [HP HF] Hx. split; cbn [a_free a_blks].
  - rewrite live_offs_lo in *. cbn [a_blks]. rewrite lo_app. change (lo [mkBlk x 1 wos 0 false 0]) with [x].
    rewrite app_assoc. eapply perm_trans; [symmetry; apply Permutation_cons_append|].
    eapply perm_trans; [|exact HP]. rewrite app_comm_cons. apply Permutation_app_tail. exact Hx.
  - apply Forall_app. split; auto. constructor; [cbn; lia|constructor].
Qed.

(** the state after a Release() that does not panic *)
Definition unref (h : nat) (b : blk) (a : ast) : ast :=
  mkA (if b_use b - 1 =? 0 then a_free a ++ [b_off b] else a_free a)
      (upd h (set_use (b_use b - 1)) (a_blks a)) (a_pins a)
      (if b_use b - 1 =? 0 then S (a_nfreed a) else a_nfreed a).

Lemma release_eq h b a : release h b a = if b_use b - 1 <? 0 then None else Some (unref h b a).
Proof. reflexivity. Qed.

Lemma unref_frees h b a : b_use b = 1 -> In (b_off b) (a_free (unref h b a)).
Proof. intros H. cbn [unref a_free]. rewrite H. cbn. apply in_or_app. right. left. reflexivity. Qed.

Lemma inv_unref c a h b :
  inv c a -> nth_error (a_blks a) h = Some b -> 1 <= b_use b -> inv c (unref h b a).
Proof.
  intros [HP HF] Hb Hu. split.
  - rewrite live_offs_lo in *. cbn [unref a_free a_blks].
    destruct (lo_upd h (set_use (b_use b - 1)) _ _ Hb) as (l1 & l2 & E1 & E2).
    rewrite E2. rewrite E1 in HP. unfold one in *. cbn [b_use b_off set_use].
    rewrite (proj2 (Z.ltb_lt 0 (b_use b))) in HP by lia.
    destruct (b_use b - 1 =? 0) eqn:E0.
    + apply Z.eqb_eq in E0. rewrite E0. cbn [Z.ltb Z.compare app].
      eapply perm_trans; [|exact HP]. rewrite <- !app_assoc. apply Permutation_app_head.
      cbn. apply Permutation_middle.
    + apply Z.eqb_neq in E0. rewrite (proj2 (Z.ltb_lt 0 (b_use b - 1))) by lia. exact HP.
  - apply Forall_upd; [exact HF|]. intros x _ _. cbn. lia.
Qed.

Lemma inv_same_lo c a bl ps nf :
  inv c a -> lo bl = lo (a_blks a) -> Forall (fun b => 0 <= b_use b) bl ->
  inv c (mkA (a_free a) bl ps nf).
Proof.
  intros [HP HF] E F. split; [|exact F]. rewrite live_offs_lo in *. cbn [a_free a_blks]. rewrite E. exact HP.
Qed.

Lemma inv_upd c a h f ps nf :
  inv c a ->
  (forall b, nth_error (a_blks a) h = Some b ->
     b_off (f b) = b_off b /\ (b_use (f b) = b_use b \/ 0 < b_use b <= b_use (f b))) ->
  inv c (mkA (a_free a) (upd h f (a_blks a)) ps nf).
Proof.
  intros Hi Hf. apply inv_same_lo; [exact Hi| |].
  - apply lo_upd_same. intros b Hb. apply one_same; apply (Hf b Hb).
  - apply Forall_upd; [apply Hi|]. intros b Hb H0. destruct (Hf b Hb) as [_ [->|H]]; lia.
Qed.

Lemma step_inv c a o : inv c a -> inv c (fst (step c a o)).
Proof.
  intros Hi. destruct o; cbn [step]; auto.
  - destruct (a_free a) as [|x f'] eqn:E; auto. apply inv_hand; auto. rewrite E. reflexivity.
  - destruct (take_at _ _) as [[x f']|] eqn:E; auto. apply inv_hand; auto. apply (take_at_some _ _ _ _ E).
  - destruct (nth_error (a_blks a) h) as [b|] eqn:Eb; auto.
    rewrite release_eq. destruct (b_use b - 1 <? 0) eqn:Hu; auto. apply Z.ltb_ge in Hu.
    apply (inv_upd c (unref h b a)); [apply inv_unref; auto; lia|]. intros; split; [|left]; reflexivity.
  - destruct (nth_error (a_blks a) h) as [b|] eqn:Eb; auto.
    destruct (b_use b + 1 <=? 1) eqn:E; auto. apply Z.leb_gt in E.
    apply inv_upd; auto. intros b0 Hb0. rewrite Eb in Hb0. injection Hb0 as <-. split; [reflexivity|right; cbn; lia].
  - destruct (nth_error (a_blks a) h) as [b|] eqn:Eb; auto.
    destruct (size <? 0); auto. destruct (negb (has_space c b size)); auto.
    destruct (b_use b + 1 <=? 1) eqn:E; auto. apply Z.leb_gt in E.
    apply inv_upd; auto. intros b0 Hb0. rewrite Eb in Hb0. injection Hb0 as <-. split; [reflexivity|right; cbn; lia].
  - destruct (nth_error (a_pins a) p) as [pn|] eqn:Ep; auto.
    destruct (negb (p_open pn)); auto.
    destruct (nth_error (a_blks a) (p_h pn)) as [b|] eqn:Eb; auto.
    rewrite release_eq. destruct (b_use b - 1 <? 0) eqn:Hu; auto. apply Z.ltb_ge in Hu.
    apply (inv_upd c (unref (p_h pn) b a)); [apply inv_unref; auto; lia|]. intros; split; [|left]; reflexivity.
Qed.

Lemma exec_inv c ops : forall a, inv c a -> inv c (fst (exec c a ops)).
Proof.
  induction ops as [|o ops IH]; intros a Hi; cbn; auto.
  pose proof (step_inv c a o Hi) as Hs.
  destruct (step c a o) as [a' r]. cbn in Hs.
  specialize (IH a' Hs). destruct (exec c a' ops) as [a'' rs].
  destruct r; cbn; auto.
Qed.

Lemma exec_cons c a o ops a' r : step c a o = (a', r) -> r <> RPanic ->
  exec c a (o :: ops) = (let (a'', rs) := exec c a' ops in (a'', r :: rs)).
Proof. intros H Hr. cbn [exec]. rewrite H. destruct r; try reflexivity. congruence. Qed.

Lemma exec_cons_head c a o ops : exists af rs,
  exec c a (o :: ops) = (af, snd (step c a o) :: rs).
Proof.
  cbn [exec]. destruct (step c a o) as [a' r]. destruct (exec c a' ops) as [a'' rs].
  destruct r; cbn [snd]; eauto.
Qed.

Lemma panicked_cons r rs : r <> RPanic -> panicked (r :: rs) = panicked rs.
Proof. intros H. destruct r; try reflexivity. congruence. Qed.

Lemma inv_free_length c a : inv c a -> (length (a_free a) <= c_n c)%nat.
Proof.
  intros [HP _]. apply Permutation_length in HP. rewrite app_length, regions_length in HP. lia.
Qed.

Lemma handed_is_free c a o a' x : step c a o = (a', RHanded x) -> In x (a_free a).
Proof.
  destruct o; cbn [step].
  - destruct (a_free a) as [|y f']; [discriminate|]. intros [= _ <-]. left; reflexivity.
  - destruct (take_at _ _) as [[y f']|] eqn:E; [|discriminate]. intros [= _ <-].
    eapply Permutation_in; [apply (take_at_some _ _ _ _ E)|left; reflexivity].
  - destruct (nth_error _ _); [destruct (release _ _ _)|]; discriminate.
  - destruct (nth_error _ _); [destruct (_ <=? _)|]; discriminate.
  - destruct (nth_error _ _); [|discriminate]. destruct (_ <? _); [discriminate|].
    destruct (negb _); [discriminate|]. destruct (_ <=? _); discriminate.
  - destruct (nth_error _ _) as [pn|]; [|discriminate]. destruct (negb _); [discriminate|].
    destruct (nth_error _ _); [destruct (release _ _ _)|]; discriminate.
  - discriminate.
Qed.

Lemma free_not_live c a x : wf_cfg c -> inv c a -> In x (a_free a) ->
  ~ In x (live_offs a) /\ In x (regions c).
Proof.
  intros Hc Hi Hx. pose proof (inv_NoDup c a Hc Hi) as Hn. split.
  - intros Hl. apply in_split in Hx. destruct Hx as (f1 & f2 & E). rewrite E in Hn.
    rewrite <- app_assoc in Hn. cbn in Hn. apply NoDup_remove_2 in Hn. apply Hn.
    rewrite !in_app_iff. auto.
  - eapply Permutation_in; [apply Hi|]. apply in_or_app; auto.
Qed.

Lemma region_free_or_live c a x : inv c a -> In x (regions c) -> In x (a_free a) \/ In x (live_offs a).
Proof.
  intros [HP _] Hx. apply in_app_or. eapply Permutation_in; [symmetry; exact HP|exact Hx].
Qed.

(** exact use counts, for callers that keep the protocol *)
Definition count_open (h : nat) (ps : list pin) : nat :=
  length (filter (fun p => Nat.eqb (p_h p) h && p_open p) ps).

Definition use_ok (b : blk) : Prop :=
  b_use b = (if b_rel b then 0 else 1) + Z.of_nat (b_pins b).

Definition inv2 (a : ast) : Prop :=
  Forall use_ok (a_blks a)
  /\ (forall h b, nth_error (a_blks a) h = Some b -> b_pins b = count_open h (a_pins a))
  /\ (forall p, In p (a_pins a) -> (p_h p < length (a_blks a))%nat).

(** the caller's protocol: Release() once by the owner; no Get/Put after it *)
Definition okop (c : acfg) (a : ast) (o : op) : bool :=
  match o with
  | ORel h | OGet h =>
      match nth_error (a_blks a) h with Some b => negb (b_rel b) | None => true end
  | OPut h size =>
      match nth_error (a_blks a) h with
      | Some b => negb (b_rel b) || (size <? 0) || negb (has_space c b size)
      | None => true
      end
  | _ => true
  end.

(** a breach is a call on a block whose owner has released it *)
Lemma okop_false c a o : okop c a o = false ->
  exists h b, nth_error (a_blks a) h = Some b /\ b_rel b = true /\
    (o = ORel h \/ o = OGet h \/
     exists size, o = OPut h size /\ (size <? 0) = false /\ has_space c b size = true).
Proof.
  destruct o; try discriminate; cbn [okop];
    destruct (nth_error (a_blks a) h) as [b|] eqn:Eb; try discriminate; intros Hok; exists h, b; rewrite Eb.
  - apply negb_false_iff in Hok. repeat split; auto.
  - apply negb_false_iff in Hok. repeat split; auto.
  - rewrite !orb_false_iff, !negb_false_iff in Hok. destruct Hok as [[Hr Hs] Hh].
    repeat split; auto. right. right. exists size. auto.
Qed.

Lemma count_open_app h l1 l2 : count_open h (l1 ++ l2) = (count_open h l1 + count_open h l2)%nat.
Proof. unfold count_open. rewrite filter_app, app_length. reflexivity. Qed.

Lemma count_open_none h ps : (forall p, In p ps -> p_h p <> h) -> count_open h ps = O.
Proof.
  unfold count_open. induction ps as [|p r IH]; intros H; cbn; auto.
  destruct (Nat.eqb (p_h p) h) eqn:E.
  - apply Nat.eqb_eq in E. exfalso. apply (H p); [left; reflexivity|exact E].
  - cbn. apply IH. intros q Hq. apply H. right; exact Hq.
Qed.

Lemma inv2_init c : inv2 (init_a c).
Proof.
  split; [constructor|]. split.
  - intros [|h] b H; discriminate.
  - intros p [].
Qed.

Lemma inv2_hand a x f' wos nf :
  inv2 a -> inv2 (mkA f' (a_blks a ++ [mkBlk x 1 wos 0 false 0]) (a_pins a) nf).
Proof.
  intros (H1 & H2 & H3). split; [|split]; cbn [a_blks a_pins].
  - apply Forall_app. split; auto. constructor; [reflexivity|constructor].
  - intros h b Hb. destruct (Nat.lt_ge_cases h (length (a_blks a))) as [Hl|Hl].
    + rewrite nth_error_app1 in Hb by exact Hl. auto.
    + rewrite nth_error_app2 in Hb by exact Hl.
      destruct (h - length (a_blks a))%nat as [|k] eqn:Ek; cbn in Hb.
      * inversion Hb; subst b. cbn. symmetry. apply count_open_none.
        intros p Hp. specialize (H3 p Hp). lia.
      * destruct k; discriminate.
  - intros p Hp. rewrite app_length. specialize (H3 p Hp). lia.
Qed.

Lemma inv2_upd a h f fr nf :
  inv2 a ->
  (forall b, nth_error (a_blks a) h = Some b -> use_ok (f b) /\ b_pins (f b) = b_pins b) ->
  inv2 (mkA fr (upd h f (a_blks a)) (a_pins a) nf).
Proof.
  intros (H1 & H2 & H3) Hf. split; [|split]; cbn [a_blks a_pins].
  - apply Forall_upd; [exact H1|]. intros b Eb _. apply (Hf b Eb).
  - intros h' b Hb. rewrite nth_error_upd in Hb. destruct (Nat.eqb h h') eqn:E.
    + apply Nat.eqb_eq in E. subst h'. destruct (nth_error (a_blks a) h) as [b0|] eqn:E0; [|discriminate].
      inversion Hb; subst b. rewrite (proj2 (Hf b0 eq_refl)). auto.
    + auto.
  - intros p Hp. rewrite upd_length. auto.
Qed.

Lemma inv2_pin a h b f k off :
  inv2 a -> nth_error (a_blks a) h = Some b ->
  use_ok (f b) -> b_pins (f b) = S (b_pins b) ->
  inv2 (mkA (a_free a) (upd h f (a_blks a)) (a_pins a ++ [mkPin h true k off]) (a_nfreed a)).
Proof.
  intros (H1 & H2 & H3) Eb Hu Hp. split; [|split]; cbn [a_blks a_pins].
  - apply Forall_upd; [exact H1|]. intros b0 E0 _. rewrite Eb in E0. injection E0 as <-. exact Hu.
  - intros h' b' Hb. rewrite count_open_app. unfold count_open at 2. cbn.
    rewrite nth_error_upd in Hb. destruct (Nat.eqb h h') eqn:E.
    + apply Nat.eqb_eq in E. subst h'. rewrite Eb in Hb. inversion Hb; subst b'.
      rewrite Hp, (H2 _ _ Eb). cbn. lia.
    + cbn. rewrite (H2 _ _ Hb). lia.
  - intros p Hin. rewrite upd_length. apply in_app_or in Hin. destruct Hin as [Hin|[<-|[]]]; auto.
    cbn. apply nth_error_Some. rewrite Eb. discriminate.
Qed.

Lemma count_open_cons h p l :
  count_open h (p :: l) = ((if Nat.eqb (p_h p) h && p_open p then 1 else 0) + count_open h l)%nat.
Proof. unfold count_open. cbn. destruct (Nat.eqb (p_h p) h && p_open p); reflexivity. Qed.

Lemma count_open_close h p ps pn :
  nth_error ps p = Some pn -> p_open pn = true ->
  count_open h ps = (count_open h (upd p close_pin ps) + (if Nat.eqb (p_h pn) h then 1 else 0))%nat.
Proof.
  intros Ep Ho. destruct (upd_split p close_pin _ _ Ep) as (l1 & l2 & E & Hu).
  rewrite Hu, E, !count_open_app, !count_open_cons. cbn. rewrite Ho.
  destruct (Nat.eqb (p_h pn) h); cbn; lia.
Qed.

Lemma upd_upd {T} i (f g : T -> T) l : upd i g (upd i f l) = upd i (fun x => g (f x)) l.
Proof. revert i; induction l as [|x r IH]; intros [|i]; cbn; auto. f_equal; auto. Qed.

Lemma open_pin_counts a p pn b :
  inv2 a -> nth_error (a_pins a) p = Some pn -> p_open pn = true ->
  nth_error (a_blks a) (p_h pn) = Some b -> (1 <= b_pins b)%nat.
Proof.
  intros (_ & H2 & _) Ep Ho Eb. rewrite (H2 _ _ Eb).
  rewrite (count_open_close (p_h pn) p _ pn Ep Ho), Nat.eqb_refl. lia.
Qed.

Lemma inv2_unpin a b f p pn fr nf :
  inv2 a -> nth_error (a_pins a) p = Some pn -> p_open pn = true ->
  nth_error (a_blks a) (p_h pn) = Some b ->
  use_ok (f b) -> b_pins (f b) = pred (b_pins b) ->
  inv2 (mkA fr (upd (p_h pn) f (a_blks a)) (upd p close_pin (a_pins a)) nf).
Proof.
  intros Hj Ep Ho Eb Hu Hp. pose proof (open_pin_counts _ _ _ _ Hj Ep Ho Eb) as H1p.
  destruct Hj as (H1 & H2 & H3). split; [|split]; cbn [a_blks a_pins].
  - apply Forall_upd; [exact H1|]. intros b0 E0 _. rewrite Eb in E0. injection E0 as <-. exact Hu.
  - intros h' b' Hb. rewrite nth_error_upd in Hb.
    destruct (Nat.eqb (p_h pn) h') eqn:E.
    + apply Nat.eqb_eq in E. subst h'. rewrite Eb in Hb. inversion Hb; subst b'.
      rewrite Hp, (H2 _ _ Eb). rewrite (count_open_close (p_h pn) p _ pn Ep Ho), Nat.eqb_refl. lia.
    + rewrite (H2 _ _ Hb). rewrite (count_open_close h' p _ pn Ep Ho), E. lia.
  - intros q Hq. rewrite upd_length. apply In_upd in Hq. destruct Hq as (q0 & Hq0 & [->| ->]); apply (H3 q0 Hq0).
Qed.

Lemma use_ok_nth a h b : inv2 a -> nth_error (a_blks a) h = Some b -> use_ok b.
Proof.
  intros (H1 & _) Eb. rewrite Forall_forall in H1. apply H1. eapply nth_error_In; eauto.
Qed.

(** a handle that is live in the monitor's sense holds a reference *)
Lemma use_ok_live b : use_ok b -> b_rel b = false \/ (1 <= b_pins b)%nat -> 1 <= b_use b.
Proof. unfold use_ok. intros -> [->|H]; [|destruct (b_rel b)]; lia. Qed.

(** the calls that change a block, written out: they go through as soon
    as the block holds a reference *)
Lemma step_rel c a h b : nth_error (a_blks a) h = Some b -> 1 <= b_use b ->
  step c a (ORel h) =
  (mkA (a_free (unref h b a)) (upd h (fun x => set_rel (set_use (b_use b - 1) x)) (a_blks a))
       (a_pins a) (a_nfreed (unref h b a)), RRel).
Proof.
  intros Eb Hu. cbn [step]. rewrite Eb, release_eq, (proj2 (Z.ltb_ge _ _)) by lia. cbn [unref a_blks a_pins].
  rewrite upd_upd. reflexivity.
Qed.

Lemma step_get c a h b : nth_error (a_blks a) h = Some b -> 1 <= b_use b ->
  step c a (OGet h) =
  (mkA (a_free a) (upd h pin_blk (a_blks a)) (a_pins a ++ [mkPin h true 1 0]) (a_nfreed a), RGot).
Proof. intros Eb Hu. cbn [step]. rewrite Eb, (proj2 (Z.leb_gt _ _)) by lia. reflexivity. Qed.

Lemma step_put c a h size b :
  nth_error (a_blks a) h = Some b -> (size <? 0) = false -> has_space c b size = true -> 1 <= b_use b ->
  step c a (OPut h size) =
  (mkA (a_free a) (upd h (put_blk (c_sector c) (b_sh b + size)) (a_blks a))
       (a_pins a ++ [mkPin h true 2 (b_wos b * c_sector c + b_sh b)]) (a_nfreed a), RPut true).
Proof.
  intros Eb Hs Hh Hu. cbn [step]. rewrite Eb, Hs, Hh, (proj2 (Z.leb_gt _ _)) by lia. reflexivity.
Qed.

Lemma step_fin c a p pn b :
  nth_error (a_pins a) p = Some pn -> p_open pn = true ->
  nth_error (a_blks a) (p_h pn) = Some b -> 1 <= b_use b ->
  step c a (OFin p) =
  (mkA (a_free (unref (p_h pn) b a))
       (upd (p_h pn) (fun x => unpin_blk (set_use (b_use b - 1) x)) (a_blks a))
       (upd p close_pin (a_pins a)) (a_nfreed (unref (p_h pn) b a)), RFin (p_kind pn) (p_off pn)).
Proof.
  intros Ep Ho Eb Hu. cbn [step]. rewrite Ep, Ho, Eb, release_eq, (proj2 (Z.ltb_ge _ _)) by lia.
  cbn [negb unref a_blks a_pins]. rewrite upd_upd. reflexivity.
Qed.

Lemma step_inv2 c a o : inv2 a -> okop c a o = true ->
  inv2 (fst (step c a o)) /\ snd (step c a o) <> RPanic.
Proof.
  intros Hj Hok. destruct o.
  - cbn [step]. destruct (a_free a) as [|x f']; cbn [fst snd]; split; try discriminate.
    + exact Hj.
    + apply inv2_hand; exact Hj.
  - cbn [step]. destruct (take_at _ _) as [[x f']|]; cbn [fst snd]; split; try discriminate.
    + apply inv2_hand; exact Hj.
    + exact Hj.
  - cbn [okop] in Hok. destruct (nth_error (a_blks a) h) as [b|] eqn:Eb.
    + apply negb_true_iff in Hok. pose proof (use_ok_nth _ _ _ Hj Eb) as Hb.
      rewrite (step_rel c a h b Eb) by (apply use_ok_live; auto). split; [|discriminate].
      apply (inv2_upd a); [exact Hj|]. intros b0 Hb0. rewrite Eb in Hb0. injection Hb0 as <-.
      split; [|reflexivity]. unfold use_ok in *. cbn. rewrite Hok in Hb. lia.
    + cbn [step]. rewrite Eb. split; [exact Hj|discriminate].
  - cbn [okop] in Hok. destruct (nth_error (a_blks a) h) as [b|] eqn:Eb.
    + apply negb_true_iff in Hok. pose proof (use_ok_nth _ _ _ Hj Eb) as Hb.
      rewrite (step_get c a h b Eb) by (apply use_ok_live; auto). split; [|discriminate].
      apply inv2_pin with (b := b); auto. unfold use_ok in *. cbn. rewrite Hok in *. lia.
    + cbn [step]. rewrite Eb. split; [exact Hj|discriminate].
  - cbn [okop] in Hok. destruct (nth_error (a_blks a) h) as [b|] eqn:Eb.
    + destruct (size <? 0) eqn:Hs; [cbn [step]; rewrite Eb, Hs; split; [exact Hj|discriminate]|].
      destruct (has_space c b size) eqn:Hh; [|cbn [step]; rewrite Eb, Hs, Hh; split; [exact Hj|discriminate]].
      rewrite !orb_false_r in Hok. apply negb_true_iff in Hok. pose proof (use_ok_nth _ _ _ Hj Eb) as Hb.
      rewrite (step_put c a h size b Eb Hs Hh) by (apply use_ok_live; auto). split; [|discriminate].
      apply inv2_pin with (b := b); auto. unfold use_ok in *. cbn. rewrite Hok in *. lia.
    + cbn [step]. rewrite Eb. split; [exact Hj|discriminate].
  - destruct (nth_error (a_pins a) p) as [pn|] eqn:Ep; [|cbn [step]; rewrite Ep; split; [exact Hj|discriminate]].
    destruct (p_open pn) eqn:Ho; [|cbn [step]; rewrite Ep, Ho; split; [exact Hj|discriminate]].
    destruct (nth_error (a_blks a) (p_h pn)) as [b|] eqn:Eb;
      [|cbn [step]; rewrite Ep, Ho, Eb; split; [exact Hj|discriminate]].
    pose proof (use_ok_nth _ _ _ Hj Eb) as Hb. pose proof (open_pin_counts _ _ _ _ Hj Ep Ho Eb) as Hp.
    rewrite (step_fin c a p pn b Ep Ho Eb) by (apply use_ok_live; auto). split; [|discriminate].
    apply (inv2_unpin a b); auto. unfold use_ok in *. cbn. destruct (b_rel b); lia.
  - split; [exact Hj|discriminate].
Qed.
