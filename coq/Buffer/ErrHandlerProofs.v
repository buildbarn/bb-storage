(** C16 — [Section Stitch]: the stream of the error-handling chunk reader is
    the stitching of the streams of its underlying readers, each opened at the
    number of bytes delivered so far; every I/O error is offered to the
    handler once, in order; an error of the handler ends the stream
    ([ehc_stitched]).  The file also holds: an invariant of the handlers'
    answers ([Section AnswerInvariant]), unfoldings of [try_repeatedly] and
    [try_stack] ([Section Retries]), Done reported exactly once
    ([run_case_done_once]), lemmas on [drains], [dropN] and offset readers,
    [carries] with [stitched_no_dup_no_skip], and the whole-operation retries
    of tryRepeatedly ([retried], [try_repeatedly_spec]). *)
From Coq Require Import List ZArith NArith Bool Lia.
From BBS Require Import Buffer.Source Buffer.Validate Buffer.Convert Buffer.ErrHandler
  Buffer.StreamProofs Buffer.ValidateProofs Buffer.ConvertProofs.
Import ListNotations.
Open Scope N_scope.

Lemma on_error_answer h t : fst (on_error h t) = fst (on_error (mkHst (h_answers h) []) t).
Proof. unfold on_error. cbn. destruct (h_answers h); reflexivity. Qed.
Lemma on_error_log h t : h_log (snd (on_error h t)) = h_log h ++ [HOnError t].
Proof. unfold on_error. destruct (h_answers h); reflexivity. Qed.
Lemma on_error_replace h t b h' :
  on_error h t = (Replace b, h') -> h_answers h = Replace b :: h_answers h'.
Proof. unfold on_error. destruct (h_answers h) as [|a r]; intros E; inv E. reflexivity. Qed.

Definition op_done (e : err) : bool := match e with ENone | EEof => true | _ => false end.
Lemma op_done_false e : op_done e = false -> e <> ENone /\ e <> EEof.
Proof. destruct e; intros E; try discriminate E; split; discriminate. Qed.

Lemma ehc_read_io ifuel f max r c t cur' :
  ucr_read ifuel max (ec_cur r) = ((c, t), cur') -> op_done t = false ->
  ehc_read ifuel (S f) max r =
  let '(a, h') := on_error (ec_h r) t in
  match a with
  | Fail c1 => (([], ECode c1), mkEhc cur' (ec_off r) h')
  | Replace b => ehc_read ifuel f max (mkEhc (ucr_open ifuel b (ec_off r)) (ec_off r) h')
  end.
Proof. intros Hu Ht. cbn [ehc_read]. rewrite Hu. destruct t; try discriminate Ht; reflexivity. Qed.

Lemma ehr_read_done fuel cap r d t cur' :
  urd_read fuel cap (er_cur r) = ((d, t), cur') -> op_done t = true ->
  ehr_read fuel cap r = ((d, t), mkEhr cur' (er_off r + lenN d) (er_h r)).
Proof. intros Hu Ht. unfold ehr_read. rewrite Hu. destruct t; try discriminate Ht; reflexivity. Qed.
Lemma ehr_read_io fuel cap r d t cur' :
  urd_read fuel cap (er_cur r) = ((d, t), cur') -> op_done t = false ->
  ehr_read fuel cap r =
  let '(a, h') := on_error (er_h r) t in
  match a with
  | Fail c => ((d, ECode c), mkEhr cur' (er_off r + lenN d) h')
  | Replace b => ((d, ENone), mkEhr (urd_open fuel b (er_off r + lenN d)) (er_off r + lenN d) h')
  end.
Proof. intros Hu Ht. unfold ehr_read. rewrite Hu. destruct t; try discriminate Ht; reflexivity. Qed.

Lemma sch_read_io ifuel f max r c t cur' :
  ucr_read ifuel max (sc_cur r) = ((c, t), cur') -> op_done t = false ->
  sch_read ifuel (S f) max r =
  let '((ob, e'), passed, act') := escalate t (w_act (sc_w r)) in
  match ob with
  | None => (([], e'), mkSch cur' (sc_off r) (after_failure (sc_w r) passed))
  | Some b =>
      sch_read ifuel f max
        (mkSch (ucr_open ifuel b (sc_off r)) (sc_off r)
               (after_replace (sc_w r) passed act' (ucr_closes (ucr_close cur'))))
  end.
Proof. intros Hu Ht. cbn [sch_read]. rewrite Hu. destruct t; try discriminate Ht; reflexivity. Qed.

Lemma shr_read_done fuel cap r d t cur' :
  urd_read fuel cap (sr_cur r) = ((d, t), cur') -> op_done t = true ->
  shr_read fuel cap r = ((d, t), mkShr cur' (sr_off r + lenN d) (sr_w r)).
Proof. intros Hu Ht. unfold shr_read. rewrite Hu. destruct t; try discriminate Ht; reflexivity. Qed.
Lemma shr_read_io fuel cap r d t cur' :
  urd_read fuel cap (sr_cur r) = ((d, t), cur') -> op_done t = false ->
  shr_read fuel cap r =
  let '((ob, e'), passed, act') := escalate t (w_act (sr_w r)) in
  match ob with
  | None => ((d, e'), mkShr cur' (sr_off r + lenN d) (after_failure (sr_w r) passed))
  | Some b => ((d, ENone), mkShr (urd_open fuel b (sr_off r + lenN d)) (sr_off r + lenN d)
                                    (after_replace (sr_w r) passed act' (urd_closes (urd_close cur'))))
  end.
Proof. intros Hu Ht. unfold shr_read. rewrite Hu. destruct t; try discriminate Ht; reflexivity. Qed.

Section Stitch.
  Variable ifuel : nat.
  Variable max : N.
  Notation urd := (ucr_read ifuel max).

  (** [stitched cur k answers out e offered]: from the current underlying
      reader [cur], with [k] bytes delivered so far, the consumer receives [out]
      and then [e]; [offered] are the errors passed to OnError. *)
  Inductive stitched : ucr -> N -> list answer -> bytes -> err -> list err -> Prop :=
  | st_eof cur k ans p cur' :
      drains urd cur p EEof cur' -> stitched cur k ans p EEof []
  | st_fail cur k ans p t cur' c :
      drains urd cur p t cur' -> t <> EEof ->
      fst (on_error (mkHst ans []) t) = Fail c -> stitched cur k ans p (ECode c) [t]
  | st_replace cur k b rest p t cur' p2 e offs :
      drains urd cur p t cur' -> t <> EEof ->
      stitched (ucr_open ifuel b (k + lenN p)) (k + lenN p) rest p2 e offs ->
      stitched cur k (Replace b :: rest) (p ++ p2) e (t :: offs).

  Lemma stitched_cons cur c cur' k ans out e offs :
    urd cur = ((c, ENone), cur') -> stitched cur' (k + lenN c) ans out e offs ->
    stitched cur k ans (c ++ out) e offs.
  Proof.
    intros Hr Hs. inversion Hs; subst.
    - eapply st_eof. eapply drains_step; eassumption.
    - eapply st_fail; [eapply drains_step; eassumption|assumption|assumption].
    - rewrite app_assoc. eapply st_replace; [eapply drains_step; eassumption|assumption|].
      rewrite lenN_app, N.add_assoc. assumption.
  Qed.

  (** one Read, with the replacements performed within it (the current reader
      fails at once, the handler supplies another buffer, which is opened at the
      same offset), in front of the stream that follows *)
  Lemma ehc_read_stitched : forall f r c e r1,
    ehc_read ifuel f max r = ((c, e), r1) -> e <> EFuel ->
    exists offs0,
      h_log (ec_h r1) = h_log (ec_h r) ++ map HOnError offs0 /\
      match e with
      | ENone => ec_off r1 = ec_off r + lenN c /\
          forall out e2 offs, stitched (ec_cur r1) (ec_off r1) (h_answers (ec_h r1)) out e2 offs ->
                              stitched (ec_cur r) (ec_off r) (h_answers (ec_h r)) (c ++ out) e2 (offs0 ++ offs)
      | _ => c = [] /\ ec_off r1 = ec_off r /\ stitched (ec_cur r) (ec_off r) (h_answers (ec_h r)) [] e offs0
      end.
  Proof.
    induction f as [|f IH]; intros r c e r1 Hr Hne; [inv Hr; congruence|].
    destruct (urd (ec_cur r)) as [[c0 t] cur'] eqn:Hu. destruct (op_done t) eqn:Ht.
    - cbn [ehc_read] in Hr. rewrite Hu in Hr. exists []. rewrite app_nil_r.
      destruct t; try discriminate Ht; inv Hr; cbn [ec_cur ec_off ec_h]; (split; [reflexivity|]).
      + split; [reflexivity|]. intros out e2 offs Hs. eapply stitched_cons; eassumption.
      + rsplit; auto. eapply st_eof. eapply drains_end; [eassumption|congruence].
    - rewrite (ehc_read_io _ _ _ _ _ _ _ Hu Ht) in Hr. destruct (op_done_false _ Ht) as (Hn & He).
      pose proof (on_error_log (ec_h r) t) as Hl. pose proof (on_error_answer (ec_h r) t) as Ha.
      assert (Hd0 : drains urd (ec_cur r) [] t cur') by (eapply drains_end; eassumption).
      destruct (on_error (ec_h r) t) as [[b|c1] h'] eqn:Ho; cbn [fst snd] in Hl, Ha.
      + destruct (IH _ _ _ _ Hr Hne) as (offs0 & Hlog & Hm). cbn [ec_cur ec_off ec_h] in Hlog, Hm.
        exists (t :: offs0). rewrite (on_error_replace _ _ _ _ Ho).
        split; [rewrite Hlog, Hl, <- app_assoc; reflexivity|].
        assert (Hrep : forall out e2 offs,
                  stitched (ucr_open ifuel b (ec_off r)) (ec_off r) (h_answers h') out e2 offs ->
                  stitched (ec_cur r) (ec_off r) (Replace b :: h_answers h') out e2 (t :: offs)).
        { intros out e2 offs Hs. change out with ([] ++ out). eapply st_replace; [exact Hd0|exact He|].
          rewrite lenN_nil, N.add_0_r. exact Hs. }
        destruct e; try congruence;
          [destruct Hm as (Hoff & Hext); split; [exact Hoff|]; intros out e2 offs Hs; exact (Hrep _ _ _ (Hext _ _ _ Hs))
          |destruct Hm as (-> & Hoff & Hs); rsplit; auto; exact (Hrep _ _ _ Hs)..].
      + inv Hr. exists [t]. cbn [ec_h ec_off map]. split; [exact Hl|]. rsplit; auto.
        eapply st_fail; [exact Hd0|exact He|symmetry; exact Ha].
  Qed.

  Theorem ehc_stitched fuel r out e r' :
    drains (ehc_read ifuel fuel max) r out e r' -> e <> EFuel ->
    exists offs,
      stitched (ec_cur r) (ec_off r) (h_answers (ec_h r)) out e offs /\
      h_log (ec_h r') = h_log (ec_h r) ++ map HOnError offs /\
      ec_off r' = ec_off r + lenN out.
  Proof.
    induction 1 as [r c e r1 Hr Hnn|r c r1 bs e r2 Hr _ IH]; intros Hne.
    - destruct (ehc_read_stitched _ _ _ _ _ Hr Hne) as (offs0 & Hlog & Hm). exists offs0.
      destruct e; try congruence; destruct Hm as (_ & Hoff & Hs); (split; [exact Hs|]); (split; [exact Hlog|]);
        rewrite Hoff, lenN_nil; lia.
    - destruct (ehc_read_stitched _ _ _ _ _ Hr ltac:(congruence)) as (offs0 & Hlog & Hoff & Hext).
      destruct (IH Hne) as (offs & Hs & Hl & Ho). exists (offs0 ++ offs). split; [apply Hext; exact Hs|].
      rewrite Hl, Hlog, map_app, <- app_assoc, Ho, Hoff, lenN_app. split; [reflexivity|lia].
  Qed.
End Stitch.

Lemma escalate_failed : forall act e e' passed act',
  escalate e act = ((None, e'), passed, act') -> act' = [] /\ (e' = e \/ exists c, e' = ECode c).
Proof.
  induction act as [|h rest IH]; intros e e' passed act' He; cbn [escalate] in He.
  - inv He. auto.
  - destruct (on_error h e) as [[b|c] h']; [inv He|].
    destruct (escalate (ECode c) rest) as [[[ob0 e0] passed0] act0] eqn:Hr. inv He.
    destruct (IH _ _ _ _ Hr) as (-> & [->|(c0 & ->)]); split; eauto.
Qed.

Lemma escalate_nonempty : forall acts t ob e' passed act',
  escalate t acts = ((ob, e'), passed, act') -> acts <> [] ->
  match ob with Some _ => act' <> [] | None => passed <> [] /\ exists c, e' = ECode c end.
Proof.
  induction acts as [|h rest IH]; intros t ob e' passed act' He Hn; [congruence|]. cbn [escalate] in He.
  destruct (on_error h t) as [a h']. destruct a as [b|c]; [inv He; discriminate|].
  destruct (escalate (ECode c) rest) as [[r0 passed0] act0] eqn:Hr. destruct r0 as [ob0 e0]. inv He.
  destruct rest as [|h2 rest2].
  - cbn in Hr. inv Hr. split; [discriminate|eauto].
  - specialize (IH _ _ _ _ _ Hr ltac:(discriminate)). destruct ob; [exact IH|]. destruct IH as (_ & Hc). split; [discriminate|exact Hc].
Qed.

Section AnswerInvariant.
  Variable Pb : bufscript -> Prop.
  Hypothesis Pb_error : forall c, Pb (BError c).

  Definition ans_ok (a : answer) : Prop := match a with Replace b => Pb b | Fail _ => True end.
  Definition hs_ok (hs : list hst) : Prop := Forall (fun h => Forall ans_ok (h_answers h)) hs.

  Lemma on_error_ok h e a h' :
    on_error h e = (a, h') -> Forall ans_ok (h_answers h) -> ans_ok a /\ Forall ans_ok (h_answers h').
  Proof.
    unfold on_error. destruct (h_answers h) as [|a0 r]; intros Ho Hw; inv Ho; cbn.
    - split; [exact I|constructor].
    - inversion Hw; auto.
  Qed.

  Lemma escalate_ok : forall act e ob e' passed act',
    escalate e act = ((ob, e'), passed, act') -> hs_ok act ->
    hs_ok passed /\ hs_ok act' /\ match ob with Some b => Pb b | None => True end.
  Proof.
    induction act as [|h rest IH]; intros e ob e' passed act' He Hc; cbn [escalate] in He.
    - inv He. rsplit; auto; constructor.
    - inversion Hc as [|x l Hh Hrest]; subst.
      destruct (on_error h e) as [a h'] eqn:Ho. destruct (on_error_ok _ _ _ _ Ho Hh) as (Ha & Hh').
      destruct a as [b|c].
      + inv He. rsplit; [constructor|constructor; assumption|exact Ha].
      + destruct (escalate (ECode c) rest) as [[[ob0 e0] passed0] act0] eqn:Hr. inv He.
        destruct (IH _ _ _ _ _ Hr Hrest) as (Hp & Ha' & Hob). rsplit; [constructor; assumption|assumption|exact Hob].
  Qed.

  Lemma weh_ok : forall n b h w h',
    with_error_handler n b h = (w, h') -> Pb b -> Forall ans_ok (h_answers h) ->
    Pb (match w with inl b' | inr b' => b' end) /\ Forall ans_ok (h_answers h').
  Proof.
    induction n as [|n IH]; intros b h w h' Hw Hc Hall; destruct b; cbn [with_error_handler] in Hw;
      try (inv Hw; auto; fail);
      destruct (on_error h (ECode c)) as [a h1] eqn:Ho; destruct (on_error_ok _ _ _ _ Ho Hall) as (Ha & Hh1);
      destruct a as [b'|c']; try (inv Hw; cbn; auto; fail).
    eapply IH; eauto.
  Qed.

  Lemma stack_handlers_ok : forall hs b w b' w',
    stack_handlers b w hs = (b', w') -> Pb b -> hs_ok (w_act w) -> hs_ok hs -> Pb b' /\ hs_ok (w_act w').
  Proof.
    induction hs as [|h rest IH]; intros b w b' w' Hs Hc Hw Hh; cbn [stack_handlers] in Hs.
    - inv Hs. auto.
    - inversion Hh as [|x l Hh1 Hrest]; subst. destruct (w_act w) as [|a0 act0] eqn:Ea.
      + destruct (with_error_handler _ b h) as [r h'] eqn:Hw'.
        destruct (weh_ok _ _ _ _ _ Hw' Hc Hh1) as (Hc' & Hh').
        destruct r as [b1|b1]; eapply IH; try exact Hs; cbn [w_act]; auto;
          try (constructor; [exact Hh'|constructor]); try constructor.
      + eapply IH; try exact Hs; cbn [w_act]; auto. rewrite <- Ea in *.
        apply Forall_app. split; [exact Hw|constructor; [exact Hh1|constructor]].
  Qed.
End AnswerInvariant.

Section Retries.
  Variable H : bytes -> bytes.
  Variable cfg : vcfg.
  Variable fuel : nat.

  Lemma try_repeatedly_eq n m b h cbs :
    try_repeatedly H cfg fuel n m b h cbs =
    let o := plain H cfg fuel b m in
    let cbs := cbs ++ o_cbs o in
    if op_done (o_err o) then (o_data o, o_err o, cbs, done h)
    else
      let '(a, h') := on_error h (o_err o) in
      match a with
      | Fail c => ([], ECode c, cbs, done h')
      | Replace b' =>
          match n with
          | O => ([], EFuel, cbs, h')
          | S n' => try_repeatedly H cfg fuel n' m b' h' cbs
          end
      end.
  Proof. destruct n; cbn [try_repeatedly]; destruct (o_err (plain H cfg fuel b m)); reflexivity. Qed.

  Lemma try_stack_eq n m b w cbs :
    try_stack H cfg fuel n m b w cbs =
    let o := plain H cfg fuel b m in
    let cbs := cbs ++ o_cbs o in
    let w := retire w (closes_of b o) in
    if op_done (o_err o) then (o_data o, o_err o, cbs, all_done w)
    else
      let '((ob, e'), passed, act') := escalate (o_err o) (w_act w) in
      match ob with
      | None => ([], e', cbs, all_done (after_failure w passed))
      | Some b' =>
          match n with
          | O => ([], EFuel, cbs, w)
          | S n' => try_stack H cfg fuel n' m b' (after_replace w passed act' []) cbs
          end
      end.
  Proof. destruct n; cbn [try_stack]; destruct (o_err (plain H cfg fuel b m)); reflexivity. Qed.
End Retries.

From BBS Require Import Buffer.PreserveProofs Buffer.ClosedOnceProofs.

Definition is_done (h : hev) : bool := match h with HDone => true | _ => false end.
Definition count_done (l : list hev) : nat := length (filter is_done l).
Arguments count_done : simpl never.
Lemma count_done_onerror l e : count_done (l ++ [HOnError e]) = count_done l.
Proof. unfold count_done. rewrite filter_app, app_length. cbn. lia. Qed.
Lemma count_done_done l : count_done (l ++ [HDone]) = S (count_done l).
Proof. unfold count_done. rewrite filter_app, app_length. cbn. lia. Qed.

Lemma on_error_count h t : count_done (h_log (snd (on_error h t))) = count_done (h_log h).
Proof. rewrite on_error_log. apply count_done_onerror. Qed.
Lemma on_error_len_replace h t b h' :
  on_error h t = (Replace b, h') -> (S (length (h_answers h')) = length (h_answers h))%nat.
Proof. intros Ho. rewrite (on_error_replace _ _ _ _ Ho). reflexivity. Qed.

Definition quiet (h : hst) : Prop := count_done (h_log h) = 0%nat.

Lemma ehc_read_quiet ifuel max : forall f r x r',
  ehc_read ifuel f max r = (x, r') -> quiet (ec_h r) -> quiet (ec_h r').
Proof.
  induction f as [|f IH]; intros r x r' Hr Hq; [inv Hr; assumption|].
  destruct (ucr_read ifuel max (ec_cur r)) as [[c t] cur'] eqn:Hu. destruct (op_done t) eqn:Ht.
  - cbn [ehc_read] in Hr. rewrite Hu in Hr. destruct t; try discriminate Ht; inv Hr; assumption.
  - rewrite (ehc_read_io _ _ _ _ _ _ _ Hu Ht) in Hr. pose proof (on_error_count (ec_h r) t) as Hc.
    destruct (on_error (ec_h r) t) as [a h']. cbn [snd] in Hc.
    assert (Hq' : quiet h') by (unfold quiet in *; lia).
    destruct a; [eapply IH; [exact Hr|exact Hq']|inv Hr; exact Hq'].
Qed.

Lemma ehr_read_quiet fuel cap r x r' :
  ehr_read fuel cap r = (x, r') -> quiet (er_h r) -> quiet (er_h r').
Proof.
  intros Hr Hq. destruct (urd_read fuel cap (er_cur r)) as [[d t] cur'] eqn:Hu. destruct (op_done t) eqn:Ht.
  - rewrite (ehr_read_done _ _ _ _ _ _ Hu Ht) in Hr. inv Hr. assumption.
  - rewrite (ehr_read_io _ _ _ _ _ _ Hu Ht) in Hr. pose proof (on_error_count (er_h r) t) as Hc.
    destruct (on_error (er_h r) t) as [a h']. cbn [snd] in Hc.
    assert (Hq' : quiet h') by (unfold quiet in *; lia).
    destruct a; inv Hr; assumption.
Qed.

Section DoneOnce.
  Variable H : bytes -> bytes.
  Variable cfg : vcfg.
  Variable fuel : nat.

  Lemma try_repeatedly_done : forall n m b h cbs d e cbs' h',
    try_repeatedly H cfg fuel n m b h cbs = (d, e, cbs', h') ->
    (length (h_answers h) < n)%nat -> quiet h -> count_done (h_log h') = 1%nat.
  Proof.
    induction n as [|n IH]; intros m b h cbs d e cbs' h' Ht Hl Hq; [lia|].
    rewrite try_repeatedly_eq in Ht. cbv zeta in Ht.
    destruct (op_done (o_err (plain H cfg fuel b m))).
    - inv Ht. cbn. rewrite count_done_done. unfold quiet in Hq. lia.
    - set (t := o_err (plain H cfg fuel b m)) in *. pose proof (on_error_count h t) as Hc.
      destruct (on_error h t) as [a h1] eqn:Ho. cbn [snd] in Hc.
      assert (Hq1 : quiet h1) by (unfold quiet in *; lia).
      destruct a as [b'|c].
      + eapply IH; [exact Ht| |exact Hq1]. pose proof (on_error_len_replace _ _ _ _ Ho). lia.
      + inv Ht. cbn. rewrite count_done_done. unfold quiet in Hq1. lia.
  Qed.

  Lemma weh_done : forall n b h w h',
    with_error_handler n b h = (w, h') -> (length (h_answers h) < n)%nat -> quiet h ->
    count_done (h_log h') = match w with inl _ => 0%nat | inr _ => 1%nat end.
  Proof.
    induction n as [|n IH]; intros b h w h' Hw Hl Hq; [lia|].
    assert (Hdone : count_done (h_log (done h)) = 1%nat) by (cbn; rewrite count_done_done; unfold quiet in Hq; lia).
    destruct b; cbn [with_error_handler] in Hw; try (inv Hw; assumption).
    pose proof (on_error_count h (ECode c)) as Hc. destruct (on_error h (ECode c)) as [a h1] eqn:Ho. cbn [snd] in Hc.
    assert (Hq1 : quiet h1) by (unfold quiet in *; lia).
    destruct a as [b'|c'].
    - eapply IH; [exact Hw| |exact Hq1]. pose proof (on_error_len_replace _ _ _ _ Ho). lia.
    - inv Hw. cbn. rewrite count_done_done. unfold quiet in Hq1. lia.
  Qed.

  Lemma ehv_read_quiet max s r s' :
    ehv_read H cfg fuel max s = (r, s') -> quiet (ec_h (v_u s)) -> quiet (ec_h (v_u s')).
  Proof.
    intros Hr Hq. unfold ehv_read in Hr.
    exact (vcr_read_pres _ _ (fun r => quiet (ec_h r))
             (fun s0 r0 s0' Hr0 => ehc_read_quiet _ _ _ _ _ _ Hr0) _ _ _ _ _ _ Hr Hq).
  Qed.
  Lemma ehrv_read_quiet cap s r s' :
    ehrv_read H cfg fuel cap s = (r, s') -> quiet (er_h (v_u s)) -> quiet (er_h (v_u s')).
  Proof.
    intros Hr Hq. unfold ehrv_read in Hr.
    exact (vr_read_pres _ _ (fun r => quiet (er_h r))
             (fun cap0 s0 r0 s0' Hr0 => ehr_read_quiet _ _ _ _ _ Hr0) _ _ _ _ _ _ _ Hr Hq).
  Qed.

  Lemma eh_method_done b h m :
    quiet h -> count_done (x_log (eh_method H cfg fuel b h m)) = 1%nat.
  Proof.
    intros Hq.
    assert (Hdone : count_done (h_log (done h)) = 1%nat) by (cbn; rewrite count_done_done; unfold quiet in Hq; lia).
    destruct m; cbn [eh_method].
    - destruct (try_repeatedly _ _ _ _ _ _ _ _) as [[[d e] cbs] h'] eqn:Ht. cbn.
      eapply try_repeatedly_done; [exact Ht|lia|exact Hq].
    - unfold into_writer_cr. destruct (drain _ fuel [] _) as [[out e] st] eqn:Hd. cbn.
      eapply (drain_pres _ _ (fun st : ehv => quiet (ec_h (v_u st)))) in Hd.
      + rewrite count_done_done. unfold quiet in Hd. lia.
      + intros s r s'. apply ehv_read_quiet.
      + exact Hq.
    - destruct (try_repeatedly _ _ _ _ _ _ _ _) as [[[d e] cbs] h'] eqn:Ht. cbn.
      eapply try_repeatedly_done; [exact Ht|lia|exact Hq].
    - destruct (valid_offset (g_size cfg) off); [|exact Hdone].
      set (P0 := fun st : ehv => quiet (ec_h (v_u st))).
      set (P1 := fun st : ehv => count_done (h_log (ec_h (v_u st))) = 1%nat).
      assert (Hrd : forall s r s', ehv_read H cfg fuel max s = (r, s') -> P0 s -> P0 s')
        by (intros s r s'; apply ehv_read_quiet).
      assert (Hcl : forall st, P0 st -> P1 (ehv_close st))
        by (intros st Hp; unfold P0, P1, quiet in *; cbn; rewrite count_done_done; lia).
      pose proof (offset_init_ok _ _ ehv_close P0 P1 Hrd Hcl fuel off (vinit cfg (ehc_init fuel b h)) Hq) as Hi.
      assert (Hor := offset_read_ok _ (ehv_read H cfg fuel max) P0 P1 Hrd).
      destruct (drain _ fuel [] _) as [[out e] o] eqn:Hd.
      eapply (drain_pres _ _ (ost_ok P0 P1) Hor) in Hd; [|exact Hi].
      destruct (extra_reads _ extra o) as [ex o2] eqn:He.
      eapply (extra_reads_pres _ _ (ost_ok P0 P1) Hor) in He; [|exact Hd].
      cbn [x_log]. exact (offset_close_ok _ ehv_close P0 P1 Hcl _ He).
    - destruct (rconsume _ fuel caps _ [] _) as [[out e] st] eqn:Hc.
      assert (Hrd : forall cap s r s', ehrv_read H cfg fuel cap s = (r, s') ->
                                       quiet (er_h (v_u s)) -> quiet (er_h (v_u s'))).
      { intros cap s r s'. apply ehrv_read_quiet. }
      eapply (rconsume_pres _ _ (fun st : ehrv => quiet (er_h (v_u st))) Hrd) in Hc; [|exact Hq].
      destruct (rextra _ extra _ st) as [ex st2] eqn:He.
      eapply (rextra_pres _ _ (fun st : ehrv => quiet (er_h (v_u st))) Hrd) in He; [|exact Hc].
      cbn. rewrite count_done_done. unfold quiet in He. lia.
    - destruct (try_repeatedly _ _ _ _ _ _ _ _) as [[[d e] cbs] h'] eqn:Ht.
      assert (Hx : count_done (h_log h') = 1%nat) by (eapply try_repeatedly_done; [exact Ht|lia|exact Hq]).
      destruct e; exact Hx.
    - exact Hdone.
  Qed.

  Theorem run_case_done_once b0 answers m :
    count_done (x_log (run_case H cfg fuel b0 answers m)) = 1%nat.
  Proof.
    unfold run_case.
    destruct (with_error_handler _ b0 _) as [w h] eqn:Hw.
    assert (Hc := weh_done _ _ _ _ _ Hw). cbn in Hc. specialize (Hc ltac:(lia) eq_refl).
    destruct w; [apply eh_method_done; exact Hc|exact Hc].
  Qed.
End DoneOnce.

Lemma lenN_dropN k l : lenN (dropN k l) = lenN l - k.
Proof.
  revert k. induction l as [|x l IH]; intros k; cbn [dropN].
  - rewrite lenN_nil. lia.
  - destruct (k =? 0) eqn:E; [apply N.eqb_eq in E; subst; lia|]. apply N.eqb_neq in E.
    rewrite IH, lenN_cons. lia.
Qed.

Lemma drains_inj {S T} (rd : S -> (bytes * err) * S) (rd' : T -> (bytes * err) * T) (f : T -> S) :
  (forall t, rd (f t) = let '(x, t') := rd' t in (x, f t')) ->
  forall t p e s', drains rd (f t) p e s' -> exists t', s' = f t' /\ drains rd' t p e t'.
Proof.
  intros Hf t p e s' Hd. remember (f t) as s eqn:Es. revert t Es.
  induction Hd as [s c e s1 Hr Hne|s c s1 bs e s2 Hr _ IH]; intros t ->; rewrite Hf in Hr;
    destruct (rd' t) as [x t1] eqn:Ht; inv Hr.
  - exists t1. split; [reflexivity|]. eapply drains_end; eassumption.
  - destruct (IH _ eq_refl) as (t' & -> & Hd'). exists t'. split; [reflexivity|]. eapply drains_step; eassumption.
Qed.
Lemma drains_stuck {S} (rd : S -> (bytes * err) * S) s x p t s' :
  rd s = (([], x), s) -> drains rd s p t s' -> p = [] /\ t = x.
Proof.
  intros Hs Hd. induction Hd as [s c e s1 Hr Hne|s c s1 bs e s2 Hr _ IH]; rewrite Hs in Hr; inv Hr; auto.
Qed.

Lemma offset_drains_fixed {S} (rd : S -> (bytes * err) * S) o out e o' :
  drains (offset_read rd) o out e o' -> o_fixed o = ENone -> o_fixed o' = ENone.
Proof.
  induction 1 as [o c e o1 Hr Hne|o c o1 bs e o2 Hr _ IH]; intros Hf; unfold offset_read in Hr; rewrite Hf in Hr.
  - destruct (is_nil (o_prefix o)); [destruct (rd (o_u o)) as [x u']|]; inv Hr; reflexivity.
  - apply IH. destruct (is_nil (o_prefix o)); [destruct (rd (o_u o)) as [x u']|]; inv Hr; reflexivity.
Qed.

Lemma offset_stream {S} (rd : S -> (bytes * err) * S) (cl : S -> S) fuel off s0 out e o' :
  drains (offset_read rd) (offset_init rd cl fuel off s0) out e o' -> (0 <= off)%Z -> e <> EFuel ->
  exists full u, drains rd s0 full e u /\ out = dropN (Z.to_N off) full /\ o_u (offset_close cl o') = cl u.
Proof.
  intros Hd Hpos Hnf. unfold offset_init in Hd. destruct (off <? 0)%Z eqn:Hneg; [apply Z.ltb_lt in Hneg; lia|].
  destruct (discard_from_chunk_reader rd fuel (Z.to_N off) s0) as [[prefix e0] s'] eqn:Hdis.
  match goal with |- ?G =>
    assert (Hfail : e0 <> ENone -> drains (offset_read rd) (mkOst (cl s') [] e0) out e o' -> G) end.
  { intros Hne Hd'. destruct (offset_fixed_drains _ _ _ _ _ _ Hd' Hne) as (Ee & ->). cbn in Ee. subst e0.
    assert (Eo : o' = mkOst (cl s') [] e)
      by (inversion Hd' as [o c e1 o1 Hr _|o c o1 bs e1 o2 Hr _]; subst; unfold offset_read in Hr; cbn in Hr;
          destruct e; inv Hr; congruence).
    subst o'. destruct (discard_fails _ _ _ _ _ _ _ _ Hdis Hne Hnf) as (bs0 & Hd0 & Hl0).
    exists bs0, s'. rsplit; [exact Hd0|symmetry; apply dropN_all; lia|]. unfold offset_close. destruct e; try congruence; reflexivity. }
  destruct e0; try (apply Hfail; [congruence|exact Hd]).
  destruct (discard_pulls _ _ _ _ _ _ _ Hdis) as (bs0 & Hp0 & -> & Hle).
  pose proof (offset_drains_fixed _ _ _ _ _ Hd eq_refl) as Hfx.
  destruct (offset_drains _ _ _ _ _ _ _ Hd) as (bs2 & -> & Hd2).
  exists (bs0 ++ bs2), (o_u o'). rsplit; [exact (pulls_drains _ _ _ _ _ _ _ _ Hp0 Hd2)|now rewrite dropN_app|].
  unfold offset_close. rewrite Hfx. reflexivity.
Qed.

Section Pieces.
  Variable ifuel : nat.
  Variable max : N.
  Notation urd := (ucr_read ifuel max).

  Lemma unorm_drains cur p t cur' :
    drains urd cur p t cur' -> forall n, cur = UNorm n ->
    exists n', cur' = UNorm n' /\ drains (norm_read (offset_read csrc_read) ifuel max) n p t n'.
  Proof. intros Hd n ->. exact (drains_inj _ _ UNorm (fun _ => eq_refl) _ _ _ _ Hd). Qed.
  Lemma ubs_drains cur p t cur' :
    drains urd cur p t cur' -> forall d, cur = UBs d ->
    exists d', cur' = UBs d' /\ drains (bs_read max) d p t d'.
  Proof. intros Hd d ->. exact (drains_inj _ _ UBs (fun _ => eq_refl) _ _ _ _ Hd). Qed.
  Lemma uerr_drains c p t cur' : drains urd (UErr (ECode c)) p t cur' -> p = [] /\ t = ECode c.
  Proof. apply drains_stuck. reflexivity. Qed.

  Lemma offset_chunk_drains evs k p t o' :
    drains (offset_read csrc_read) (offset_init csrc_read csrc_close ifuel (Z.of_N k) (mkCsrc evs 0)) p t o' ->
    t <> EFuel ->
    t = snd (content evs) /\
    (k <= lenN (fst (content evs)) /\ p = dropN k (fst (content evs)) \/
     lenN (fst (content evs)) < k /\ p = []).
  Proof.
    intros Hdo Hnf. destruct (offset_stream _ _ _ _ _ _ _ _ Hdo ltac:(lia) Hnf) as (full & u & Hall & -> & _).
    rewrite N2Z.id. destruct (csrc_drains evs 0) as (send & Hsrc).
    destruct (drains_det _ _ _ _ _ _ _ _ _ Hsrc Hall) as (<- & <- & _). split; [reflexivity|].
    destruct (N.le_gt_cases k (lenN (fst (content evs)))) as [Hle|Hgt]; [left; auto|right].
    split; [exact Hgt|apply dropN_all; lia].
  Qed.

  Lemma piece_chunk evs k p t cur' :
    drains urd (ucr_open ifuel (BChunk evs) k) p t cur' -> t <> EFuel ->
    t = snd (content evs) /\
    (k <= lenN (fst (content evs)) /\ p = dropN k (fst (content evs)) \/
     lenN (fst (content evs)) < k /\ p = []).
  Proof.
    intros Hd Hnf. cbn [ucr_open] in Hd.
    destruct (unorm_drains _ _ _ _ Hd _ eq_refl) as (n' & _ & Hdn).
    apply norm_drains in Hdn; [|exact Hnf]. destruct Hdn as (bs & E & Hdo). cbn in E, Hdo. subst bs.
    exact (offset_chunk_drains _ _ _ _ _ Hdo Hnf).
  Qed.
End Pieces.

(** [b] carries (a prefix of) the object [C]: a source that ends with io.EOF
    carries all of it. *)
Definition carries (C : bytes) (b : bufscript) : Prop :=
  match b with
  | BChunk evs => exists rest, C = fst (content evs) ++ rest /\ (snd (content evs) = EEof -> rest = [])
  | BBytes d => d = C
  | BError _ => True
  | BReader _ _ => False
  end.

Section NoDup.
  Variable ifuel : nat.
  Variable max : N.

  Lemma piece_spec C b k p t cur' :
    carries C b -> k <= lenN C ->
    drains (ucr_read ifuel max) (ucr_open ifuel b k) p t cur' -> t <> EFuel ->
    k + lenN p <= lenN C /\ dropN k C = p ++ dropN (k + lenN p) C /\ (t = EEof -> p = dropN k C).
  Proof.
    intros Hc Hk Hd Hnf. destruct b as [evs|evs a|d|c]; cbn [carries] in Hc.
    - destruct Hc as (rest & -> & Hrest).
      destruct (piece_chunk _ _ _ _ _ _ _ Hd Hnf) as (-> & [[Hle ->]|[Hlt ->]]).
      + rewrite lenN_dropN. rewrite lenN_app in *.
        split; [lia|]. replace (k + (lenN (fst (content evs)) - k)) with (lenN (fst (content evs))) by lia.
        rewrite dropN_app by assumption. rewrite dropN_app_ge by lia. rewrite N.sub_diag, dropN_0.
        split; [reflexivity|]. intros He. rewrite (Hrest He), !app_nil_r. reflexivity.
      + rewrite lenN_nil, N.add_0_r. split; [assumption|]. split; [reflexivity|].
        intros He. rewrite (Hrest He), app_nil_r in Hk. lia.
    - contradiction.
    - subst d. cbn [ucr_open] in Hd. destruct (k <=? lenN C) eqn:E; [|apply N.leb_gt in E; lia].
      destruct (ubs_drains _ _ _ _ _ _ Hd _ eq_refl) as (d' & _ & Hdb).
      destruct (bs_read_drains _ _ _ _ _ Hdb) as (-> & ->).
      rewrite lenN_dropN. replace (k + (lenN C - k)) with (lenN C) by lia.
      rewrite (dropN_all (lenN C) C) by lia. rewrite app_nil_r. split; [lia|]. split; reflexivity.
    - cbn [ucr_open] in Hd. destruct (uerr_drains _ _ _ _ _ _ Hd) as (-> & ->).
      rewrite lenN_nil, N.add_0_r. split; [assumption|]. split; [reflexivity|]. discriminate.
  Qed.

  (** If the original and all replacement buffers carry the same object, a
      stitched stream that reaches io.EOF is that object from the start offset:
      no duplicated and no skipped range, wherever the failures occur. *)
  Theorem stitched_no_dup_no_skip C : forall cur k ans out e offs,
    stitched ifuel max cur k ans out e offs -> e = EEof ->
    forall b, cur = ucr_open ifuel b k -> carries C b ->
    Forall (fun a => match a with Replace b' => carries C b' | Fail _ => True end) ans ->
    ~ In EFuel offs -> k <= lenN C -> out = dropN k C.
  Proof.
    induction 1 as [cur k ans p cur' Hd|cur k ans p t cur' c Hd Hne Ho|cur k b1 rest p t cur' p2 e offs Hd Hne _ IH];
      intros He b -> Hc Hall Hnf Hk.
    - destruct (piece_spec _ _ _ _ _ _ Hc Hk Hd) as (_ & _ & Hp); [congruence|]. auto.
    - discriminate.
    - inversion Hall as [|a l Hb1 Hrest]; subst.
      destruct (piece_spec _ _ _ _ _ _ Hc Hk Hd) as (Hk' & Hsplit & _); [intros ->; apply Hnf; left; reflexivity|].
      rewrite Hsplit. f_equal. eapply IH; eauto. intros Hin. apply Hnf. right. exact Hin.
  Qed.
End NoDup.

Lemma stitched_result ifuel max cur k ans out e offs :
  stitched ifuel max cur k ans out e offs ->
  e = EEof \/
  exists c pre t, e = ECode c /\ offs = pre ++ [t] /\
                  fst (on_error (mkHst (skipn (length pre) ans) []) t) = Fail c.
Proof.
  induction 1 as [cur k ans p cur' Hd|cur k ans p t cur' c Hd Hne Ho|cur k b1 rest p t cur' p2 e offs Hd Hne _ IH].
  - left. reflexivity.
  - right. exists c, [], t. auto.
  - destruct IH as [->|(c & pre & t' & -> & -> & Ho)]; [left; reflexivity|].
    right. exists c, (t :: pre), t'. auto.
Qed.

Lemma eh_validated_stitched H cfg fuel max b h out st' :
  drains (ehv_read H cfg fuel max) (vinit cfg (ehc_init fuel b h)) out EEof st' ->
  lenN out = g_size cfg /\ g_hash cfg = H out /\
  exists offs, stitched fuel max (ucr_open fuel b 0) 0 (h_answers h) out EEof offs.
Proof.
  intros Hd. unfold ehv_read in Hd.
  destruct (vcr_complete_implies_valid _ _ _ _ _ _ _ _ Hd) as ((u & Hdu) & Hl & Hh).
  destruct (ehc_stitched _ _ _ _ _ _ _ Hdu) as (offs & Hs & _); [congruence|].
  split; [exact Hl|]. split; [exact Hh|]. exists offs. exact Hs.
Qed.

Section Retry.
  Variable H : bytes -> bytes.
  Variable cfg : vcfg.
  Variable fuel : nat.

  (** [retried m b answers d e offered]: the operation [m] is applied to [b];
      if it succeeds that is the result; otherwise its error is offered to the
      handler, whose error answer is the result, or whose replacement buffer
      is tried in the same way. *)
  Inductive retried (m : meth) : bufscript -> list answer -> bytes -> err -> list err -> Prop :=
  | rt_ok b ans :
      op_done (o_err (plain H cfg fuel b m)) = true ->
      retried m b ans (o_data (plain H cfg fuel b m)) (o_err (plain H cfg fuel b m)) []
  | rt_fail b ans c :
      op_done (o_err (plain H cfg fuel b m)) = false ->
      fst (on_error (mkHst ans []) (o_err (plain H cfg fuel b m))) = Fail c ->
      retried m b ans [] (ECode c) [o_err (plain H cfg fuel b m)]
  | rt_replace b b' rest d e offs :
      op_done (o_err (plain H cfg fuel b m)) = false ->
      retried m b' rest d e offs ->
      retried m b (Replace b' :: rest) d e (o_err (plain H cfg fuel b m) :: offs).

  Theorem try_repeatedly_spec : forall n m b h cbs d e cbs' h',
    try_repeatedly H cfg fuel n m b h cbs = (d, e, cbs', h') ->
    (length (h_answers h) < n)%nat ->
    exists offs, retried m b (h_answers h) d e offs /\
                 h_log h' = h_log h ++ map HOnError offs ++ [HDone].
  Proof.
    induction n as [|n IH]; intros m b h cbs d e cbs' h' Ht Hl; [lia|].
    rewrite try_repeatedly_eq in Ht. cbv zeta in Ht.
    destruct (op_done (o_err (plain H cfg fuel b m))) eqn:Hop.
    - inv Ht. exists []. split; [apply rt_ok; exact Hop|reflexivity].
    - set (t := o_err (plain H cfg fuel b m)) in *.
      pose proof (on_error_log h t) as Hlog. pose proof (on_error_answer h t) as Hans.
      destruct (on_error h t) as [a h1] eqn:Ho. cbn [fst snd] in *.
      destruct a as [b'|c].
      + pose proof (on_error_len_replace _ _ _ _ Ho) as Hlen.
        destruct (IH _ _ _ _ _ _ _ _ Ht ltac:(lia)) as (offs & Hr & Hl').
        exists (t :: offs). rewrite (on_error_replace _ _ _ _ Ho). split; [apply rt_replace; assumption|].
        rewrite Hl', Hlog. cbn [map app]. rewrite <- !app_assoc. reflexivity.
      + inv Ht. exists [t]. split; [apply rt_fail; [exact Hop|symmetry; exact Hans]|].
        cbn [done h_log map app]. rewrite Hlog, <- app_assoc. reflexivity.
  Qed.
End Retry.
