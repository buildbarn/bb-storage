(** C09 — NewCASBufferFromChunkReader, the "otherwise" half for
    EVERY consumption method: callback verdicts are sound in every case (no
    fuel hypothesis); for invalid content the error is [expected_err], and
    fewer than [size] bytes (counted from the method's offset) are handed out.
    The converse needed by the monitor: VALID content with accepted parameters
    is never rejected (if the model did not run out of fuel). *)
From Coq Require Import List ZArith NArith Bool Lia.
From BBS Require Import Common.Sx Buffer.Source Buffer.Validate Buffer.Convert Buffer.StreamProofs
  Buffer.ValidateProofs Buffer.ValidateReaderProofs Buffer.ConvertProofs Buffer.ReaderBufferProofs
  Buffer.ConvertProofs2 Buffer.C09FullValidate Buffer.C09FullCombinators Run.R09.
Import ListNotations.
Open Scope N_scope.

(** methods through which data reaches the consumer before the stream's end is known *)
Definition streams (m : meth) : bool :=
  match m with MIntoWriter | MToChunkReader _ _ _ | MToReader _ _ => true | _ => false end.

Lemma content_term evs : snd (content evs) = EEof \/ exists c, snd (content evs) = ECode c.
Proof.
  induction evs as [|[bs|c|] r IH]; cbn [content]; auto.
  - destruct (content r) as [c e]. exact IH.
  - right. eexists. reflexivity.
Qed.

Lemma expected_not_done cfg evs :
  let e := expected_err cfg (fst (content evs)) (snd (content evs)) in
  e <> ENone /\ e <> EEof /\ e <> EUnexp /\ e <> EFuel.
Proof.
  unfold expected_err. destruct (g_size cfg <? lenN (fst (content evs))); [rsplit; congruence|].
  destruct (content_term evs) as [->|(c & ->)]; rsplit; congruence.
Qed.

Lemma lenN_dropN n l : n <= lenN l -> lenN (dropN n l) = lenN l - n.
Proof.
  intros Hn. pose proof (takeN_dropN n l) as E. apply (f_equal lenN) in E.
  rewrite lenN_app, lenN_takeN in E. lia.
Qed.

Lemma csrc_read_close s : csrc_read (csrc_close s) = (fst (csrc_read s), csrc_close (snd (csrc_read s))).
Proof. destruct s as [rest k]. unfold csrc_read, csrc_close. cbn. destruct rest as [|[bs|c|] r]; reflexivity. Qed.

Lemma pulls_close s bs s' : pulls csrc_read s bs s' -> pulls csrc_read (csrc_close s) bs (csrc_close s').
Proof.
  induction 1 as [s|s c s1 bs s2 Hr _ IH]; [constructor|].
  econstructor; [|exact IH]. rewrite csrc_read_close, Hr. reflexivity.
Qed.
Lemma drains_close s bs e s' : drains csrc_read s bs e s' -> drains csrc_read (csrc_close s) bs e (csrc_close s').
Proof.
  induction 1 as [s c e s1 Hr Hne|s c s1 bs e s2 Hr _ IH].
  - eapply drains_end; [|exact Hne]. rewrite csrc_read_close, Hr. reflexivity.
  - eapply drains_step; [|exact IH]. rewrite csrc_read_close, Hr. reflexivity.
Qed.

Section ChunkOtherwise.
  Variable H : bytes -> bytes.
  Variable cfg : vcfg.
  Variable fuel : nat.

  Notation I2 := (Inv2 H cfg csrc csrc_read).
  Notation rdv := (cv_read H cfg fuel).

  Lemma valid_stream_shift evs k k' :
    valid_stream H cfg csrc_read (mkCsrc evs k) <-> valid_stream H cfg csrc_read (mkCsrc evs k').
  Proof. rewrite !valid_stream_script. reflexivity. Qed.

  Lemma origin2_close evs k e :
    origin2 H cfg csrc csrc_read (mkCsrc evs k) e -> origin2 H cfg csrc csrc_read (mkCsrc evs (S k)) e.
  Proof.
    intros [->|[(-> & Hnv & Hw)|(Hne & bs & u' & Hd & Hl)]]; [left; reflexivity|right; left|right; right].
    - rsplit; auto.
      + intros Hv. apply Hnv. apply (valid_stream_shift evs k (S k)). exact Hv.
      + destruct Hw as [(bs & u & Hp & Hl)|(bs & u & Hd)].
        * left. exists bs, (csrc_close u). split; [exact (pulls_close _ _ _ Hp)|exact Hl].
        * right. exists bs, (csrc_close u). exact (drains_close _ _ _ _ Hd).
    - split; [exact Hne|]. exists bs, (csrc_close u'). split; [exact (drains_close _ _ _ _ Hd)|exact Hl].
  Qed.

  Lemma Inv2_close evs k st out : I2 (mkCsrc evs k) st out -> I2 (mkCsrc evs (S k)) (cv_close st) out.
  Proof.
    intros [[Ht Hf] Hi]. split.
    - split; intros Hin.
      + apply (valid_stream_shift evs k (S k)). apply Ht. exact Hin.
      + intros Hv. apply (Hf Hin). apply (valid_stream_shift evs k (S k)). exact Hv.
    - change (v_err (cv_close st)) with (v_err st). destruct (v_err st).
      + destruct Hi as (Hp & Ha & Hl & Hpos). rsplit; auto. exact (pulls_close _ _ _ Hp).
      + destruct Hi as ((u & Hd) & Hl & Hh). rsplit; auto. exists (csrc_close u). exact (drains_close _ _ _ _ Hd).
      + destruct Hi as [Hb Ho]. split; [exact Hb|exact (origin2_close _ _ _ Ho)].
      + destruct Hi as [Hb Ho]. split; [exact Hb|exact (origin2_close _ _ _ Ho)].
      + destruct Hi as [Hb Ho]. split; [exact Hb|exact (origin2_close _ _ _ Ho)].
  Qed.

  (** the set of validator states no consumption method leaves *)
  Definition Pv (evs : list ev) (st : cvs) : Prop := exists k out, I2 (mkCsrc evs k) st out.

  Lemma Pv_init evs : Pv evs (cv_init cfg evs).
  Proof. exists 0%nat, []. apply Inv2_init. Qed.
  Lemma Pv_close evs st : Pv evs st -> Pv evs (cv_close st).
  Proof. intros (k & out & Hi). exists (S k), out. exact (Inv2_close _ _ _ _ Hi). Qed.
  Lemma Pv_read evs : agree (Pv evs) rdv rdv.
  Proof.
    intros st (k & out & Hi). split; [reflexivity|].
    destruct (rdv st) as [[c e] st'] eqn:Hr. cbn [snd]. unfold cv_read in Hr.
    pose proof (vcr_read_step2 _ _ _ _ _ _ _ _ _ _ _ Hi Hr) as Hs.
    destruct e; [exists k, (out ++ c); exact Hs|..]; exists k, out; apply Hs.
  Qed.
  Lemma Pv_cbs evs st : Pv evs st ->
    (In true (v_cbs st) -> valid_script H cfg evs) /\ (In false (v_cbs st) -> ~ valid_script H cfg evs).
  Proof.
    intros (k & out & [[Ht Hf] _]). split; intros Hin.
    - apply (valid_stream_script H cfg evs k). apply Ht. exact Hin.
    - intros Hv. apply (Hf Hin). apply (valid_stream_script H cfg evs k). exact Hv.
  Qed.
End ChunkOtherwise.

Section ChunkAgree.
  Variables H1 H2 : bytes -> bytes.
  Variable cfg : vcfg.
  Variable fuel : nat.
  Variable P : cvs -> Prop.
  Hypothesis Hag : agree P (cv_read H1 cfg fuel) (cv_read H2 cfg fuel).
  Hypothesis Hcl : forall s, P s -> P (cv_close s).

  Lemma cas_chunk_reader_agree evs m : P (cv_init cfg evs) ->
    cas_chunk_reader H1 cfg fuel evs m = cas_chunk_reader H2 cfg fuel evs m /\
    exists stf, P stf /\ o_cbs (cas_chunk_reader H1 cfg fuel evs m) = v_cbs stf.
  Proof.
    intros H0. destruct m; cbn [cas_chunk_reader].
    - destruct (to_byte_slice_cr_agree _ P _ _ cv_close Hag Hcl fuel (g_size cfg) max _ H0) as [E Hp]. rewrite <- E.
      destruct (to_byte_slice_cr (cv_read H1 cfg fuel) cv_close fuel (g_size cfg) max (cv_init cfg evs)) as [[out e] st].
      split; [reflexivity|]. exists st. split; [exact Hp|reflexivity].
    - destruct (into_writer_cr_agree _ P _ _ cv_close Hag Hcl fuel _ H0) as [E Hp]. rewrite <- E.
      destruct (into_writer_cr (cv_read H1 cfg fuel) cv_close fuel (cv_init cfg evs)) as [[out e] st].
      split; [reflexivity|]. exists st. split; [exact Hp|reflexivity].
    - destruct (read_at_cr_agree _ P _ _ cv_close Hag Hcl fuel plen off _ H0) as [E Hp]. rewrite <- E.
      destruct (read_at_cr (cv_read H1 cfg fuel) cv_close fuel plen off (cv_init cfg evs)) as [[out e] o].
      split; [reflexivity|]. exists (o_u o). split; [exact Hp|reflexivity].
    - destruct (valid_offset (g_size cfg) off).
      + destruct (offset_init_agree _ P _ _ cv_close Hag Hcl fuel off _ H0) as [E Ho]. rewrite <- E.
        set (o0 := offset_init (cv_read H1 cfg fuel) cv_close fuel off (cv_init cfg evs)) in *.
        pose proof (norm_read_agree _ (Po _ P) _ _ (offset_read_agree _ P _ _ Hag) max fuel) as Hagn.
        destruct (drain_agree _ _ _ _ Hagn fuel [] (mkNst o0 []) Ho) as [E2 Hn]. rewrite <- E2.
        destruct (drain (norm_read (offset_read (cv_read H1 cfg fuel)) fuel max) fuel [] (mkNst o0 [])) as [[out e] n].
        cbn [snd] in Hn.
        destruct (extra_reads_agree _ _ _ _ Hagn extra n Hn) as [E3 Hn2]. rewrite <- E3.
        destruct (extra_reads (norm_read (offset_read (cv_read H1 cfg fuel)) fuel max) extra n) as [ex n2].
        cbn [snd] in Hn2. split; [reflexivity|].
        exists (o_u (n_u (norm_close (offset_close cv_close) n2))). split; [|reflexivity].
        apply (norm_close_P _ (Po _ P) (offset_close cv_close) (offset_close_P _ P cv_close Hcl)). exact Hn2.
      + split; [reflexivity|]. exists (cv_close (cv_init cfg evs)). split; [apply Hcl; exact H0|reflexivity].
    - pose proof (cb_read_agree _ P _ _ Hag fuel) as Hagc.
      destruct (rconsume_agree _ _ _ _ Hagc fuel caps (last_cap caps) [] (mkCbst (cv_init cfg evs) []) H0) as [E Hs].
      rewrite <- E.
      destruct (rconsume (cb_read (cv_read H1 cfg fuel) fuel) fuel caps (last_cap caps) [] (mkCbst (cv_init cfg evs) [])) as [[out e] s].
      cbn [snd] in Hs.
      destruct (rextra_agree _ _ _ _ Hagc extra (last_cap caps) s Hs) as [E2 Hs2]. rewrite <- E2.
      destruct (rextra (cb_read (cv_read H1 cfg fuel) fuel) extra (last_cap caps) s) as [ex s2]. cbn [snd] in Hs2.
      split; [reflexivity|]. exists (cb_u (cb_close cv_close s2)). split; [|reflexivity].
      apply (cb_close_P _ P cv_close Hcl). exact Hs2.
    - destruct (to_byte_slice_cr_agree _ P _ _ cv_close Hag Hcl fuel (g_size cfg) max _ H0) as [E Hp]. rewrite <- E.
      destruct (to_byte_slice_cr (cv_read H1 cfg fuel) cv_close fuel (g_size cfg) max (cv_init cfg evs)) as [r st].
      split; [reflexivity|]. exists st. split; [exact Hp|].
      unfold clone_copy_of. destruct (snd r); reflexivity.
    - split; [reflexivity|]. exists (cv_close (cv_init cfg evs)). split; [apply Hcl; exact H0|reflexivity].
  Qed.
End ChunkAgree.

Section ChunkTheorems.
  Variable H : bytes -> bytes.
  Variable cfg : vcfg.
  Variable fuel : nat.
  Notation rdv := (cv_read H cfg fuel).
  Notation expected evs := (expected_err cfg (fst (content evs)) (snd (content evs))).

  Theorem chunk_callbacks_sound evs m :
    (In true (o_cbs (cas_chunk_reader H cfg fuel evs m)) -> valid_script H cfg evs) /\
    (In false (o_cbs (cas_chunk_reader H cfg fuel evs m)) -> ~ valid_script H cfg evs).
  Proof.
    destruct (cas_chunk_reader_agree H H cfg fuel (Pv H cfg evs) (Pv_read H cfg fuel evs) (Pv_close H cfg evs) evs m
                (Pv_init H cfg evs)) as (_ & stf & Hp & ->).
    exact (Pv_cbs H cfg evs stf Hp).
  Qed.

  Lemma cv_terminal evs bs e st' :
    drains rdv (cv_init cfg evs) bs e st' -> ~ valid_script H cfg evs -> e <> EFuel ->
    e = expected evs /\ (lenN bs < g_size cfg \/ bs = []).
  Proof.
    intros Hd Hnv Hnf. unfold cv_read, cv_init in Hd.
    pose proof (Inv2_init H cfg csrc csrc_read (mkCsrc evs 0)) as Hi0.
    destruct (vcr_drains2 _ _ _ _ _ _ _ _ _ _ _ Hi0 Hd) as [Hi He]. cbn [app] in Hi.
    assert (Hnvs : ~ valid_stream H cfg csrc_read (mkCsrc evs 0))
      by (intros Hv; apply Hnv, (valid_stream_script H cfg evs 0), Hv).
    destruct (Inv2_invalid _ _ _ _ _ _ _ Hi Hnvs) as (Hb & _ & Ho). rewrite He in Ho.
    split; [|exact Hb]. destruct (csrc_drains evs 0) as (send & Hsrc).
    eapply origin2_expected; [apply Ho; exact (drains_not_none _ _ _ _ _ _ Hd)|exact Hnf|exact Hsrc].
  Qed.

  Lemma cv_terminal_not_eof evs bs st' :
    drains rdv (cv_init cfg evs) bs EEof st' -> ~ valid_script H cfg evs -> False.
  Proof. intros Hd Hnv. apply Hnv. exact (proj1 (cv_complete _ _ _ _ _ _ Hd)). Qed.

  Lemma partial_slice_bound m bs size :
    lenN bs < size \/ bs = [] ->
    partial_slice m bs = [] \/ Z.to_N (m_off m) + lenN (partial_slice m bs) < size.
  Proof.
    intros [Hb|E]; [|subst bs; left; destruct m; reflexivity].
    destruct m; cbn [partial_slice m_off]; try (left; reflexivity); try (right; cbn; lia).
    destruct (N.le_gt_cases (lenN bs) (Z.to_N off)) as [Hle|Hgt].
    - left. apply dropN_all. exact Hle.
    - right. rewrite lenN_dropN by lia. lia.
  Qed.

  Lemma partial_slice_withheld m bs : streams m = false -> partial_slice m bs = [].
  Proof. destruct m; cbn; congruence. Qed.

  Theorem chunk_otherwise evs m o :
    m <> MDiscard -> cas_chunk_reader H cfg fuel evs m = o -> o_err o <> EFuel ->
    ~ valid_script H cfg evs -> bad_param (g_size cfg) m = false ->
    o_err o = expected evs /\
    (o_data o = [] \/ Z.to_N (m_off m) + lenN (o_data o) < g_size cfg) /\
    (streams m = false -> o_data o = []).
  Proof.
    intros Hm Ho Hnf Hnv Hbp.
    destruct (chunk_outcome H cfg fuel _ _ _ Hm Ho Hnf Hbp) as (bs & e & st' & Hd & Hne & Hout).
    destruct (cv_terminal _ _ _ _ Hd Hnv Hne) as (He & Hb).
    destruct (expected_not_done cfg evs) as (_ & Hx & _).
    assert (o_err o = e /\ o_data o = partial_slice m bs) as [-> ->].
    { destruct e; try exact Hout. exfalso. apply Hx. symmetry. exact He. }
    rsplit; [exact He|exact (partial_slice_bound _ _ _ Hb)|apply partial_slice_withheld].
  Qed.

  Lemma cv_terminal_valid evs bs e st' :
    drains rdv (cv_init cfg evs) bs e st' -> valid_script H cfg evs -> e <> EFuel -> e = EEof.
  Proof.
    intros Hd Hv Hnf. unfold cv_read, cv_init in Hd.
    pose proof (Inv2_init H cfg csrc csrc_read (mkCsrc evs 0)) as Hi0.
    destruct (vcr_drains2 _ _ _ _ _ _ _ _ _ _ _ Hi0 Hd) as [[_ Hi] He]. rewrite He in Hi.
    pose proof (drains_not_none _ _ _ _ _ _ Hd) as Hnn.
    assert (Hvs : valid_stream H cfg csrc_read (mkCsrc evs 0)) by (apply (valid_stream_script H cfg evs 0); exact Hv).
    destruct (csrc_drains evs 0) as (send & Hsrc). destruct Hv as (Ht & _). rewrite Ht in Hsrc.
    assert (Hbad : origin2 H cfg csrc csrc_read (mkCsrc evs 0) e -> e = EEof).
    { intros [->|[(_ & Hnv & _)|(Hne & bs' & u' & Hd' & _)]]; [congruence|contradiction|].
      destruct (drains_det _ _ _ _ _ _ _ _ _ Hsrc Hd') as (_ & <- & _). reflexivity. }
    destruct e; try congruence; apply Hbad, Hi.
  Qed.

  Theorem chunk_valid_completes evs m o :
    m <> MDiscard -> cas_chunk_reader H cfg fuel evs m = o -> o_err o <> EFuel ->
    valid_script H cfg evs -> bad_param (g_size cfg) m = false ->
    completed m (o_err o) = true.
  Proof.
    intros Hm Ho Hnf Hv Hbp.
    destruct (chunk_outcome H cfg fuel _ _ _ Hm Ho Hnf Hbp) as (bs & e & st' & Hd & Hne & Hout).
    rewrite (cv_terminal_valid _ _ _ _ Hd Hv Hne) in Hout. exact (proj1 Hout).
  Qed.
End ChunkTheorems.
