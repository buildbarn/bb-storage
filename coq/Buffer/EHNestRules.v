(** C16N — the accounting rules of NESTED error handling on the model, every
    tree, every script, every method, any fuel:

    - Done() is reported exactly once to every handler that exists (the
      handler of the buffer handed to the consumer and the handler of every
      wrapped replacement any handler has returned, at any depth);
    - the offering rule ([chk] of Run/R16N.v, the monitor's clause 4): every
      error a handler is offered is the error with which the buffer it holds
      at that moment has failed - the I/O error of a plain buffer goes to the
      innermost enclosing handler, the error a handler returns is what the
      enclosing handler is offered - and the observation has the shape of the
      scripts.

    Method: a reader state is LIVE (every buffer that has been given up is
    accounted for, the current one may still deliver) or it has FAILED with an
    error [e] (closing it now yields a record that passes the check and
    justifies [e] towards the enclosing handler).  The validating readers on
    top never read a reader again that has returned an error (sticky error),
    so a failed state is only ever closed. *)
From Coq Require Import List ZArith NArith Bool Lia.
From BBS Require Import Buffer.Source Buffer.Validate Buffer.Convert Buffer.ErrHandler
  Buffer.StreamProofs Buffer.ValidateProofs Buffer.ValidateReaderProofs Buffer.PreserveProofs
  Buffer.ClosedOnceProofs Buffer.EHFullReader Buffer.EHFullExact Buffer.EHNest Buffer.EHNestStep
  Run.R16 Run.R16N.
Import ListNotations.
Open Scope N_scope.

(** the observed tree with error codes, as the monitor sees it *)
Fixpoint codes_of (o : otree) : ctree :=
  match o with
  | OLeaf n => TLeaf (Z.of_nat n)
  | ONode offs d kids => TNode (map code_of offs) (Z.of_nat d) (map codes_of kids)
  end.
Fixpoint od1 (o : otree) : bool :=
  match o with
  | OLeaf _ => true
  | ONode _ d kids => Nat.eqb d 1 && forallb od1 kids
  end.
(** the model's out-of-fuel marker is accepted from anybody *)
Definition exf (e : Z) : bool := (e =? -3)%Z.

Lemma forallb_app_true {A} (f : A -> bool) l1 l2 :
  forallb f l1 = true -> forallb f l2 = true -> forallb f (l1 ++ l2) = true.
Proof. intros A1 A2. rewrite forallb_app, A1, A2. reflexivity. Qed.

Section Rules.
  Variable s : bool.      (* streaming method? *)

  Definition G (t : nbuf) (o : otree) : Prop := chk exf s t (codes_of o) = true /\ od1 o = true.
  Definition F (t : nbuf) (o : otree) (e : err) : Prop := fin exf s t (codes_of o) (code_of e) = true.

  (** a handler's progress while its current buffer is alive: every earlier
      buffer [K] has been given up with a record that passes the check and
      justifies the error that was offered for it; every answer consumed was
      a replacement *)
  Inductive Seg : nanss -> nbuf -> list err -> list otree -> nanss -> nbuf -> Prop :=
  | Seg_nil ans t0 : Seg ans t0 [] [] ans t0
  | Seg_rep t' r t0 e offs o0 K rem tc :
      G t0 o0 -> F t0 o0 e -> Seg r t' offs K rem tc ->
      Seg (ARep t' r) t0 (e :: offs) (o0 :: K) rem tc.

  Lemma Seg_snoc ans t0 offs K t' r tc oc e :
    Seg ans t0 offs K (ARep t' r) tc -> G tc oc -> F tc oc e ->
    Seg ans t0 (offs ++ [e]) (K ++ [oc]) r t'.
  Proof.
    intros Hs. remember (ARep t' r) as rem eqn:Er. revert Er.
    induction Hs as [ans t0|t2 r2 t0 e2 offs o0 K rem tc Hg Hf Hs IH]; intros -> Hgc Hfc; cbn [app].
    - apply Seg_rep; [assumption|assumption|constructor].
    - apply Seg_rep; [assumption|assumption|]. apply IH; auto.
  Qed.

  (** the check of one handler node on its record *)
  Definition Gn (inner : nbuf) (ans : nanss) (offs : list err) (kids : list otree) : Prop :=
    match kids with
    | o0 :: rest =>
        chk exf s inner (codes_of o0) &&
        walk exf s ans (fin exf s inner (codes_of o0)) (map code_of offs) (map codes_of rest) = true
    | [] => False
    end /\ forallb od1 kids = true.

  Lemma Gn_G inner ans offs kids : Gn inner ans offs kids -> G (NW inner ans) (ONode offs 1 kids).
  Proof.
    intros (Hk & Hd). destruct kids as [|o0 rest]; [contradiction|].
    split; [exact Hk|]. cbn [od1]. rewrite Hd. reflexivity.
  Qed.

  Lemma walk_nil ans fe : walk exf s ans fe [] [] = true.
  Proof. destruct ans; reflexivity. Qed.

  Lemma Seg_Gn ans t0 offs K rem tc oc tail :
    Seg ans t0 offs K rem tc -> G tc oc ->
    walk exf s rem (fin exf s tc (codes_of oc)) (map code_of tail) [] = true ->
    Gn t0 ans (offs ++ tail) (K ++ [oc]).
  Proof.
    induction 1 as [ans t0|t' r t0 e offs o0 K rem tc Hg Hf Hs IH]; intros (Hc & Hd) Hw.
    - unfold Gn. cbn [app map forallb]. rewrite Hc, Hd, Hw. split; reflexivity.
    - destruct (IH (conj Hc Hd) Hw) as (Hk & Hdd). destruct Hg as (Hg1 & Hg2). unfold F in Hf.
      split.
      + cbn [app map walk]. rewrite Hg1, Hf. cbn [andb].
        destruct (K ++ [oc]) as [|o1 rest] eqn:Ek; [contradiction|]. cbn [map]. exact Hk.
      + cbn [app forallb]. rewrite Hg2, Hdd. reflexivity.
  Qed.

  Lemma Seg_close ans t0 offs K rem tc oc :
    Seg ans t0 offs K rem tc -> G tc oc -> Gn t0 ans offs (K ++ [oc]).
  Proof.
    intros Hs Hg. rewrite <- (app_nil_r offs). apply (Seg_Gn _ _ _ _ _ _ _ [] Hs Hg), walk_nil.
  Qed.

  Lemma Seg_fail ans t0 offs K rem tc oc e c rest :
    Seg ans t0 offs K rem tc -> said rem c rest -> G tc oc -> F tc oc e -> Gn t0 ans (offs ++ [e]) (K ++ [oc]).
  Proof.
    intros Hs Ha Hg Hfe. apply (Seg_Gn _ _ _ _ _ _ _ [e] Hs Hg). unfold F in Hfe.
    destruct Ha; cbn [map walk forallb]; rewrite Hfe, ?walk_nil; reflexivity.
  Qed.

  Lemma Seg_returned ans t0 offs K rem tc :
    Seg ans t0 offs K rem tc ->
    returnedN ans (S (length offs)) =
    match rem with ANil => Some 10%Z | AFail c _ => Some c | ARep _ _ => None end.
  Proof.
    induction 1 as [ans t0|t' r t0 e offs o0 K rem tc Hg Hf Hs IH].
    - destruct ans; reflexivity.
    - cbn [length]. exact IH.
  Qed.

  Lemma node_F inner ans offs K rem tc e kids c rest :
    Seg ans inner offs K rem tc -> said rem c rest -> F (NW inner ans) (ONode (offs ++ [e]) 1 kids) (ECode c).
  Proof.
    intros Hs Ha. unfold F, fin. cbn [codes_of code_of]. rewrite map_length, app_length. cbn [length].
    rewrite Nat.add_1_r, (Seg_returned _ _ _ _ _ _ Hs). destruct Ha; rewrite Z.eqb_refl; apply orb_true_r.
  Qed.

  Lemma node_done h inner ans tc o :
    hn_done h = 0%nat -> Seg ans inner (hn_off h) (hn_dead h) (hn_ans h) tc -> G tc o ->
    G (NW inner ans) (hn_obs (hn_finish h) [o]).
  Proof.
    intros Hd Hs Hg. unfold hn_obs, hn_finish. cbn [hn_off hn_done hn_dead]. rewrite Hd. apply Gn_G.
    eapply Seg_close; eassumption.
  Qed.
  Lemma node_said h inner ans tc o e c rest :
    hn_done h = 0%nat -> Seg ans inner (hn_off h) (hn_dead h) (hn_ans h) tc -> said (hn_ans h) c rest ->
    failed e -> G tc o /\ (e <> EEof -> F tc o e) ->
    G (NW inner ans) (hn_obs (hn_finish (hn_offered h e rest)) [o]) /\
    (ECode c <> EEof -> F (NW inner ans) (hn_obs (hn_finish (hn_offered h e rest)) [o]) (ECode c)).
  Proof.
    intros Hd Hs Ha (_ & He) (Hg & Hf). specialize (Hf He).
    unfold hn_obs, hn_finish, hn_offered. cbn [hn_off hn_done hn_dead]. rewrite Hd. split.
    - apply Gn_G. eapply Seg_fail; eassumption.
    - intros _. eapply node_F; eassumption.
  Qed.

  (** Discard(): Done to every handler on the way down *)
  Lemma discard_G H cfg fuel : forall t, G t (discard_tree H cfg fuel t).
  Proof.
    induction t as [b|inner IH ans]; cbn [discard_tree].
    - split; reflexivity.
    - apply (node_done (hn_new ans) inner ans inner); [reflexivity|constructor|exact IH].
  Qed.
End Rules.

Section WholeRules.
  Variable H : bytes -> bytes.
  Variable cfg : vcfg.
  Variable fuel : nat.
  Variable m : meth.

  Definition wgood (t : nbuf) (r : wres) : Prop :=
    G false t (snd r) /\
    (match snd (fst (fst r)) with ENone | EEof => True | e => F false t (snd r) e end).

  Lemma wgood_done ans0 t0 offers dead ans tc d e cb o cbs :
    Seg false ans0 t0 offers dead ans tc -> wgood tc ((d, e, cb), o) -> e = ENone \/ e = EEof ->
    wgood (NW t0 ans0) ((d, e, cbs), ONode offers 1 (dead ++ [o])).
  Proof.
    intros Hs (Hg & _) He. split; cbn [fst snd]; [|destruct He as [->| ->]; exact Logic.I].
    apply Gn_G. eapply Seg_close; eauto.
  Qed.
  Lemma wgood_said ans0 t0 offers dead ans tc d e cb o cbs c rest :
    Seg false ans0 t0 offers dead ans tc -> wgood tc ((d, e, cb), o) -> failed e -> said ans c rest ->
    wgood (NW t0 ans0) (([], ECode c, cbs), ONode (offers ++ [e]) 1 (dead ++ [o])).
  Proof.
    intros Hs (Hg & Hf) (N1 & N2) Ha. cbn [fst snd] in *. split; cbn [fst snd].
    - apply Gn_G. eapply Seg_fail; eauto. destruct e; auto; congruence.
    - eapply node_F; eassumption.
  Qed.

  Lemma whole_rules :
    (forall t, wgood t (whole H cfg fuel m t)) /\
    (forall ans ans0 t0 tc r offers dead cbs,
       Seg false ans0 t0 offers dead ans tc -> wgood tc r ->
       wgood (NW t0 ans0) (try_ans H cfg fuel m ans r offers dead cbs)).
  Proof.
    pose (Pt := fun ans r offers dead (_ : list bool) w' => forall ans0 t0 tc,
                  Seg false ans0 t0 offers dead ans tc -> wgood tc r -> wgood (NW t0 ans0) w').
    destruct (whole_try_ind H cfg fuel m wgood Pt) as (A & B); unfold Pt.
    - intros b. split; cbn [snd fst].
      + split; reflexivity.
      + destruct (o_err (plain H cfg fuel b m)); auto; unfold F, fin; cbn; first [apply orb_true_r|reflexivity].
    - intros inner ans w w' Hi Ha. eapply Ha; [constructor|exact Hi].
    - intros ans d e cb o offers dead cbs He ans0 t0 tc Hs Hr. eapply wgood_done; eauto.
    - intros ans c rest d e cb o offers dead cbs He Ha ans0 t0 tc Hs Hr. eapply wgood_said; eauto.
    - intros t rest d e cb o offers dead cbs w w' He Ht Hrest ans0 t0 tc Hs (Hg & Hf). cbn [fst snd] in *.
      eapply Hrest; [|exact Ht]. eapply Seg_snoc; eauto. destruct He; destruct e; auto; congruence.
    - split; [exact A|]. intros ans ans0 t0 tc r offers dead cbs. apply B.
  Qed.
End WholeRules.

Lemma content_term evs : snd (content evs) = EEof \/ exists c, snd (content evs) = ECode c.
Proof.
  induction evs as [|[bs|c|] r IH]; cbn [content].
  - left; reflexivity.
  - destruct (content r) as [c0 t0]. cbn [snd] in *. exact IH.
  - right. exists c. reflexivity.
  - left; reflexivity.
Qed.

Lemma piece_fin b k p e :
  piece_of b k = (p, e) -> e <> EEof -> leaf_fin b (code_of e) = true.
Proof.
  unfold piece_of, ucontent. intros Hp Hne. destruct b as [evs|evs a|d|x]; cbn [leaf_fin].
  - destruct (content evs) as [c t] eqn:Ec. pose proof (content_term evs) as Ht. rewrite Ec in Ht. cbn [snd] in *.
    assert (e = t) by (destruct (k <=? lenN c); inj Hp; reflexivity). subst t.
    destruct Ht as [->|(x & ->)]; [congruence|]. cbn. apply Z.eqb_refl.
  - destruct (content evs) as [c t] eqn:Ec. pose proof (content_term evs) as Ht. rewrite Ec in Ht. cbn [snd] in *.
    assert (e = t) by (destruct (k <=? lenN c); inj Hp; reflexivity). subst t.
    destruct Ht as [->|(x & ->)]; [congruence|]. cbn. apply Z.eqb_refl.
  - destruct (k <=? lenN d); inj Hp; [congruence|reflexivity].
  - destruct (k <=? lenN []); inj Hp; cbn; apply Z.eqb_refl.
Qed.

Lemma exf_fuel : exf (code_of EFuel) = true.
Proof. reflexivity. Qed.

Lemma leaf_F b n e :
  (e <> EFuel -> exists k p, piece_of b k = (p, e)) -> e <> EEof -> F true (NB b) (OLeaf n) e.
Proof.
  intros Hp Hneof. unfold F, fin. cbn [codes_of]. destruct (err_eqb e EFuel) eqn:Ef.
  - destruct e; try discriminate. reflexivity.
  - destruct Hp as (k & p & Hp); [intros ->; discriminate|]. rewrite (piece_fin _ _ _ _ Hp Hneof). apply orb_true_r.
Qed.

Fixpoint twf (t : nbuf) : Prop :=
  match t with
  | NB b => wf_buf b
  | NW inner ans => twf inner /\ awf ans
  end
with awf (a : nanss) : Prop :=
  match a with
  | ANil => True
  | ARep b r => twf b /\ awf r
  | AFail _ r => awf r
  end.

Notation Gs := (G true).
Notation Fs := (F true).

Section ChunkRules.
  Variable ifuel : nat.
  Variable max : N.

  Fixpoint Live (r : ncr) (t : nbuf) : Prop :=
    match r, t with
    | CL u, NB b => wf_buf b /\ exists k p, pulls (ucr_read ifuel max) (ucr_open ifuel b k) p u
    | CE cur off h, NW inner ans =>
        hn_done h = 0%nat /\ awf (hn_ans h) /\
        exists tc, Seg true ans inner (hn_off h) (hn_dead h) (hn_ans h) tc /\ Live cur tc
    | _, _ => False
    end.
  Definition Fine (t : nbuf) (r : ncr) : Prop := Gs t (nobs (nclose r)).
  Definition Dead (t : nbuf) (r : ncr) (e : err) : Prop :=
    Fine t r /\ (e <> EEof -> Fs t (nobs (nclose r)) e).

  Lemma nopen_live : forall t k, twf t -> Live (nopen ifuel t k) t.
  Proof.
    induction t as [b|inner IH ans]; intros k Hw; cbn [nopen Live].
    - split; [exact Hw|]. exists k, []. constructor.
    - destruct Hw as (Hi & Ha). cbn. rsplit; auto. exists inner. split; [constructor|apply IH; exact Hi].
  Qed.

  Lemma live_fine : forall r t, Live r t -> Fine t r.
  Proof.
    induction r as [u|cur IH off h]; intros [b|inner ans] Hl; cbn [Live] in Hl; try contradiction.
    - split; reflexivity.
    - destruct Hl as (Hd & _ & tc & Hs & Hc). exact (node_done true _ _ _ _ _ Hd Hs (IH _ Hc)).
  Qed.

  Lemma fuel_dead t r : Live r t -> Dead t r EFuel.
  Proof. intros Hl. split; [apply live_fine; exact Hl|]. intros _. unfold F, fin. rewrite exf_fuel. reflexivity. Qed.

  Lemma nstep_spec f r x r' : nstep ifuel max f r x r' -> forall t, Live r t ->
    (snd x = ENone -> Live r' t) /\ (snd x <> ENone -> Dead t r' (snd x)).
  Proof.
    induction 1 as [r|f u [c e] u' Hu|f cur off h chunk cur' _ IH|f cur off h chunk cur' _ IH
                    |f cur off h chunk e cur' c rest _ IH He Hsaid|f cur off h chunk e cur' t' rest x r' _ IH He Ha _ IH2];
      intros t Hl; cbn [fst snd];
      [| |destruct t as [|inner ans]; [contradiction|]; destruct Hl as (Hd & Hawf & tc & Hs & Hc);
          destruct (IH _ Hc) as (Hlive & Hdead)..].
    - split; [discriminate|]. intros _. apply fuel_dead. exact Hl.
    - destruct t as [b|]; [|contradiction]. destruct Hl as (Hw & k & p & Hp). split.
      + intros ->. split; [exact Hw|]. exists k, (p ++ c). eapply pulls_snoc; eassumption.
      + intros Hne. split; [split; reflexivity|]. apply leaf_F. intros Hnf. exists k, (p ++ []).
        eapply piece_exact; [eapply pulls_drains; [exact Hp|eapply drains_end; eassumption]|exact Hnf|exact Hw].
    - split; [|congruence]. intros _. cbn [Live]. rsplit; auto. exists tc. auto.
    - destruct (Hdead ltac:(discriminate)) as (Hfc & _).
      split; [discriminate|]. intros _. split; [|congruence]. exact (node_done true _ _ _ _ _ Hd Hs Hfc).
    - split; [discriminate|]. intros _. exact (node_said true _ _ _ _ _ _ _ _ Hd Hs Hsaid He (Hdead (proj1 He))).
    - destruct (Hdead (proj1 He)) as (Hfc & Hfe).
      rewrite Ha in Hawf, Hs. destruct Hawf as (Hwt & Hwr). apply IH2.
      cbn [Live hn_retire hn_offered hn_done hn_ans hn_off hn_dead]. rsplit; auto.
      exists t'. split; [|apply nopen_live; exact Hwt]. exact (Seg_snoc true _ _ _ _ _ _ _ _ _ Hs Hfc (Hfe (proj2 He))).
  Qed.
End ChunkRules.

Section ReaderRules.
  Variable ifuel : nat.

  Fixpoint LiveR (r : nrd) (t : nbuf) : Prop :=
    match r, t with
    | RL u, NB b => wf_buf b /\ exists k p, rpulls (urd_read ifuel) (urd_open ifuel b k) p u
    | RE cur off h, NW inner ans =>
        hn_done h = 0%nat /\ awf (hn_ans h) /\
        exists tc, Seg true ans inner (hn_off h) (hn_dead h) (hn_ans h) tc /\ LiveR cur tc
    | _, _ => False
    end.
  Definition FineR (t : nbuf) (r : nrd) : Prop := Gs t (nrobs (nrclose r)).
  Definition DeadR (t : nbuf) (r : nrd) (e : err) : Prop :=
    FineR t r /\ (e <> EEof -> Fs t (nrobs (nrclose r)) e).

  Lemma nropen_live : forall t k, twf t -> LiveR (nropen ifuel t k) t.
  Proof.
    induction t as [b|inner IH ans]; intros k Hw; cbn [nropen LiveR].
    - split; [exact Hw|]. exists k, []. constructor.
    - destruct Hw as (Hi & Ha). cbn. rsplit; auto. exists inner. split; [constructor|apply IH; exact Hi].
  Qed.

  Lemma liveR_fine : forall r t, LiveR r t -> FineR t r.
  Proof.
    induction r as [u|cur IH off h]; intros [b|inner ans] Hl; cbn [LiveR] in Hl; try contradiction.
    - split; reflexivity.
    - destruct Hl as (Hd & _ & tc & Hs & Hc). exact (node_done true _ _ _ _ _ Hd Hs (IH _ Hc)).
  Qed.

  Lemma rstep_spec cap r x r' : rstep ifuel cap r x r' -> forall t, LiveR r t ->
    (snd x = ENone -> LiveR r' t) /\ (snd x <> ENone -> DeadR t r' (snd x)).
  Proof.
    induction 1 as [u [c e] u' Hu|cur off h data e cur' _ IH Hq|cur off h data e cur' c rest _ IH He Hsaid
                    |cur off h data e cur' t' rest _ IH He Ha];
      intros t Hl; cbn [fst snd];
      [|destruct t as [|inner ans]; [contradiction|]; destruct Hl as (Hd & Hawf & tc & Hs & Hc);
        destruct (IH _ Hc) as (Hlive & Hdead)..].
    - destruct t as [b|]; [|contradiction]. destruct Hl as (Hw & k & p & Hp). split.
      + intros ->. split; [exact Hw|]. exists k, (p ++ c). eapply rpulls_snoc; eassumption.
      + intros Hne. split; [split; reflexivity|]. apply leaf_F. intros Hnf. exists k, (p ++ c).
        eapply rpiece_exact; [eapply rpulls_rdrains; [exact Hp|eapply rdrains_end; eassumption]|exact Hnf|exact Hw].
    - split.
      + intros En. cbn [LiveR]. rsplit; auto. exists tc. auto.
      + intros Hne. destruct (Hdead Hne) as (Hfc & _).
        split; [|destruct Hq; congruence]. exact (node_done true _ _ _ _ _ Hd Hs Hfc).
    - split; [discriminate|]. intros _. exact (node_said true _ _ _ _ _ _ _ _ Hd Hs Hsaid He (Hdead (proj1 He))).
    - destruct (Hdead (proj1 He)) as (Hfc & Hfe).
      rewrite Ha in Hawf, Hs. destruct Hawf as (Hwt & Hwr). split; [|congruence]. intros _.
      cbn [LiveR hn_retire hn_offered hn_done hn_ans hn_off hn_dead]. rsplit; auto.
      exists t'. split; [|apply nropen_live; exact Hwt]. exact (Seg_snoc true _ _ _ _ _ _ _ _ _ Hs Hfc (Hfe (proj2 He))).
  Qed.
End ReaderRules.

Section StickyChunk.
  Variable H : bytes -> bytes.
  Variable cfg : vcfg.
  Variable S : Type.
  Variable rd : S -> (bytes * err) * S.
  Variables P0 Pf : S -> Prop.
  Hypothesis P0f : forall s, P0 s -> Pf s.
  Hypothesis rd_spec : forall s c e s', P0 s -> rd s = ((c, e), s') -> (e = ENone -> P0 s') /\ Pf s'.

  Definition Jv (st : vst S) : Prop := (v_err st = ENone -> P0 (v_u st)) /\ Pf (v_u st).

  Lemma vcr_read_sticky f (st : vst S) x st' :
    vcr_read H cfg rd f st = (x, st') -> Jv st -> Jv st'.
  Proof using P0f rd_spec. exact (vcr_read_keeps S rd P0 Pf P0f rd_spec H cfg f st x st'). Qed.
End StickyChunk.

Section StickyReader.
  Variable H : bytes -> bytes.
  Variable cfg : vcfg.
  Variable S : Type.
  Variable rd : N -> S -> (bytes * err) * S.
  Variables P0 Pf : S -> Prop.
  Hypothesis P0f : forall s, P0 s -> Pf s.
  Hypothesis rd_spec : forall cap s c e s', P0 s -> rd cap s = ((c, e), s') -> (e = ENone -> P0 s') /\ Pf s'.

  Lemma read_full_loop_sticky : forall f want got s x s',
    read_full_loop rd f want got s = (x, s') -> P0 s -> Pf s'.
  Proof. intros f. exact (read_full_loop_keeps S rd P0 Pf P0f rd_spec f). Qed.

  Lemma vr_read_sticky f cap (st : vst S) x st' :
    vr_read H cfg rd f cap st = (x, st') -> Jv S P0 Pf st -> Jv S P0 Pf st'.
  Proof using P0f rd_spec. exact (vr_read_keeps S rd P0 Pf P0f rd_spec H cfg f cap st x st'). Qed.
End StickyReader.

(** * Every method.  [Lc max] / [Lr]: a nested reader that may still be read; a
    read keeps it so as long as it returns no error, and whatever it returns,
    closing the reader afterwards yields a record with [P true] (the validating
    readers on top never read again after an error). *)
Section Observed.
  Variable H : bytes -> bytes.
  Variable cfg : vcfg.
  Variable fuel : nat.
  Variable inner : nbuf.
  Variable ans : nanss.
  Local Notation t := (NW inner ans).
  Variable P : bool -> otree -> Prop.
  Variable Lc : N -> ncr -> Prop.
  Variable Lr : nrd -> Prop.
  Hypothesis whole_P : forall m, P false (snd (whole H cfg fuel m t)).
  Hypothesis discard_Pw : P false (discard_tree H cfg fuel t).
  Hypothesis discard_Ps : P true (discard_tree H cfg fuel t).
  Hypothesis nopen_L : forall max, Lc max (nopen fuel t 0).
  Hypothesis nread_L : forall max r c e r', Lc max r -> nread fuel fuel max r = ((c, e), r') ->
    (e = ENone -> Lc max r') /\ P true (nobs (nclose r')).
  Hypothesis nclose_L : forall max r, Lc max r -> P true (nobs (nclose r)).
  Hypothesis nropen_L : Lr (nropen fuel t 0).
  Hypothesis nrread_L : forall cap r c e r', Lr r -> nrread fuel cap r = ((c, e), r') ->
    (e = ENone -> Lr r') /\ P true (nrobs (nrclose r')).
  Hypothesis nrclose_L : forall r, Lr r -> P true (nrobs (nrclose r)).

  Lemma run_tree_observed m : P (streamingb m) (z_tree (run_tree H cfg fuel t m)).
  Proof.
    pose (Jc := fun max => Jv ncr (Lc max) (fun r => P true (nobs (nclose r)))).
    pose (closed := fun st : nv => P true (nobs (v_u st))).
    pose (Jr := Jv nrd Lr (fun r => P true (nrobs (nrclose r)))).
    assert (Hread : forall max s r s', nv_read H cfg fuel max s = (r, s') -> Jc max s -> Jc max s').
    { intros max s r s'. unfold nv_read, Jc. apply vcr_read_sticky; [apply nclose_L|apply nread_L]. }
    assert (Hinit : forall max, Jc max (vinit cfg (nopen fuel t 0))).
    { intros max. split; cbn [vinit v_err v_u]; [intros _; apply nopen_L|apply (nclose_L max), nopen_L]. }
    assert (Hclose : forall max st, Jc max st -> closed (nv_close st)) by (intros max st (_ & Hf); exact Hf).
    destruct m; cbn [run_tree streamingb]; try (rewrite whole_out; apply whole_P).
    - destruct (into_writer_cr (nv_read H cfg fuel 65536) nv_close fuel (vinit cfg (nopen fuel t 0)))
        as [[out e] st] eqn:Hi. cbn [z_tree].
      exact (into_writer_cr_ok _ _ _ (Jc 65536) closed (Hread 65536) (Hclose 65536) _ _ _ _ Hi (Hinit 65536)).
    - destruct (valid_offset (g_size cfg) off) eqn:Hv; [|exact discard_Ps].
      pose proof (offset_init_ok _ _ nv_close (Jc max) closed (Hread max) (Hclose max) fuel off _ (Hinit max)) as H0.
      destruct (drain _ fuel [] _) as [[out e] o] eqn:Hd.
      pose proof (offset_read_ok _ (nv_read H cfg fuel max) (Jc max) closed (Hread max)) as Hro.
      eapply (drain_pres _ _ _ Hro) in Hd; [|exact H0].
      destruct (extra_reads _ extra o) as [ex o2] eqn:He.
      eapply (extra_reads_pres _ _ _ Hro) in He; [|exact Hd].
      cbn [z_tree]. exact (offset_close_ok _ nv_close (Jc max) closed (Hclose max) _ He).
    - assert (Hpres : forall cap s r s', nrv_read H cfg fuel cap s = (r, s') -> Jr s -> Jr s').
      { intros cap s r s'. unfold nrv_read, Jr. apply vr_read_sticky; [apply nrclose_L|apply nrread_L]. }
      destruct (rconsume _ fuel caps _ [] _) as [[out e] st] eqn:Hr.
      eapply (rconsume_pres _ _ _ Hpres) in Hr;
        [|split; cbn [vinit v_err v_u]; [intros _; exact nropen_L|exact (nrclose_L _ nropen_L)]].
      destruct (rextra _ extra _ st) as [ex st2] eqn:He.
      eapply (rextra_pres _ _ _ Hpres) in He; [|exact Hr].
      cbn [z_tree v_set_u v_u]. exact (proj2 He).
    - exact discard_Pw.
  Qed.
End Observed.

Section MethodRules.
  Variable H : bytes -> bytes.
  Variable cfg : vcfg.
  Variable fuel : nat.

  Lemma nread_step max t s c e s' :
    Live fuel max s t -> nread fuel fuel max s = ((c, e), s') -> (e = ENone -> Live fuel max s' t) /\ Fine t s'.
  Proof.
    intros Hl Hr. destruct (nstep_spec _ _ _ _ _ _ (nread_nstep _ _ _ _ _ _ Hr) _ Hl) as (A & B). cbn [snd] in *.
    split; [exact A|]. destruct (err_none_or e) as [->|Hne]; [apply (live_fine fuel max); auto|exact (proj1 (B Hne))].
  Qed.
  Lemma nrread_step t cap s c e s' :
    LiveR fuel s t -> nrread fuel cap s = ((c, e), s') -> (e = ENone -> LiveR fuel s' t) /\ FineR t s'.
  Proof.
    intros Hl Hr. destruct (rstep_spec _ _ _ _ _ (nrread_rstep _ _ _ _ _ Hr) _ Hl) as (A & B). cbn [snd] in *.
    split; [exact A|]. destruct (err_none_or e) as [->|Hne]; [apply (liveR_fine fuel); auto|exact (proj1 (B Hne))].
  Qed.

  (** Done() exactly once to every handler that exists, and the offering rule
      at every handler of the tree, for every method. *)
  Theorem run_tree_rules t m :
    twf t -> G (streamingb m) t (z_tree (run_tree H cfg fuel t m)).
  Proof.
    intros Hw. destruct t as [b|inner ans]; [split; reflexivity|].
    apply run_tree_observed with (P := fun s => G s (NW inner ans))
                                 (Lc := fun max r => Live fuel max r (NW inner ans))
                                 (Lr := fun r => LiveR fuel r (NW inner ans)).
    - intros m'. apply (whole_rules H cfg fuel m').
    - apply discard_G.
    - apply discard_G.
    - intros max. apply nopen_live. exact Hw.
    - intros max. apply nread_step.
    - intros max r. apply live_fine.
    - apply nropen_live. exact Hw.
    - intros cap r. apply nrread_step.
    - intros r. apply liveR_fine.
  Qed.
End MethodRules.
