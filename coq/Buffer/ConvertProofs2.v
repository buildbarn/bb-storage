(** C09 — NewCASBufferFromChunkReader: the chunk-reader-backed reader, ReadAt's
    fill loop, and the outcome of every method in terms of the validated stream. *)
From Coq Require Import List ZArith NArith Bool Lia.
From BBS Require Import Buffer.Source Buffer.Validate Buffer.Convert Buffer.StreamProofs
  Buffer.ValidateProofs Buffer.ValidateReaderProofs Buffer.ConvertProofs Buffer.ReaderBufferProofs Run.R09.
Import ListNotations.
Open Scope N_scope.

Lemma takeN_takeN_short n l : lenN l <= n -> takeN n l = l.
Proof. apply takeN_all. Qed.

Section ChunkBacked.
  Variable S : Type.
  Variable rd : S -> (bytes * err) * S.

  Lemma cb_loop_zero f got st : cb_loop rd f 0 got st = ((got, ENone), st).
  Proof. destruct f; reflexivity. Qed.

  Lemma cb_loop_spec : forall f left got st c e st',
    (0 < left -> cb_last st = []) ->
    cb_loop rd f left got st = ((c, e), st') ->
    (e = ENone -> exists bs, pulls rd (cb_u st) bs (cb_u st') /\ got ++ cb_last st ++ bs = c ++ cb_last st') /\
    (e <> ENone -> e <> EFuel -> exists bs, drains rd (cb_u st) bs e (cb_u st') /\ got ++ bs = c).
  Proof.
    induction f as [|f IH]; intros left got st c e st' Hl Hr; cbn [cb_loop] in Hr; destruct (left =? 0) eqn:E0.
    - inv Hr. split; [|congruence]. intros _. exists []. split; [constructor|]. now rewrite !app_nil_r.
    - inv Hr. split; congruence.
    - inv Hr. split; [|congruence]. intros _. exists []. split; [constructor|]. now rewrite !app_nil_r.
    - apply N.eqb_neq in E0. rewrite (Hl ltac:(lia)) in *.
      destruct (rd (cb_u st)) as [[c0 e0] u'] eqn:Hrd.
      destruct (err_none_dec e0) as [->|Hne0].
      2: { rewrite (err_match_failed _ _ _ Hne0) in Hr. inv Hr. split; [congruence|]. intros _ _. exists [].
           split; [eapply drains_end; eassumption|now rewrite app_nil_r]. }
      destruct (left - lenN (takeN left c0) =? 0) eqn:Ez.
      + apply N.eqb_eq in Ez. rewrite Ez, cb_loop_zero in Hr. inv Hr. split; [|congruence]. intros _.
        exists (c0 ++ []). split; [econstructor; [eassumption|constructor]|]. cbn [cb_last app].
        rewrite app_nil_r, <- app_assoc. f_equal. symmetry. apply takeN_dropN.
      + apply N.eqb_neq in Ez. rewrite lenN_takeN in Ez.
        assert (Hwhole : takeN left c0 = c0) by (apply takeN_all; lia).
        assert (Hnone : dropN left c0 = []) by (apply dropN_all; lia).
        rewrite Hwhole, Hnone in Hr.
        apply IH in Hr; [|reflexivity]. cbn [cb_u cb_last] in Hr. destruct Hr as [Hok Hko]. split.
        * intros He. destruct (Hok He) as (bs & Hp & Hb). exists (c0 ++ bs). split; [econstructor; eassumption|].
          cbn [app] in *. rewrite <- Hb, <- !app_assoc. reflexivity.
        * intros Hne Hnf. destruct (Hko Hne Hnf) as (bs & Hd & Hb). exists (c0 ++ bs).
          split; [eapply drains_step; eassumption|]. rewrite <- Hb, <- app_assoc. reflexivity.
  Qed.

  Lemma cb_read_spec f cap st c e st' :
    cb_read rd f cap st = ((c, e), st') ->
    (e = ENone -> exists bs, pulls rd (cb_u st) bs (cb_u st') /\ cb_last st ++ bs = c ++ cb_last st') /\
    (e <> ENone -> e <> EFuel -> exists bs, drains rd (cb_u st) bs e (cb_u st') /\ cb_last st ++ bs = c).
  Proof.
    unfold cb_read. intros Hr.
    destruct (cap - lenN (takeN cap (cb_last st)) =? 0) eqn:Ez.
    - apply N.eqb_eq in Ez. rewrite Ez, cb_loop_zero in Hr. inv Hr. split; [|congruence]. intros _.
      exists []. split; [constructor|]. cbn [cb_last]. now rewrite app_nil_r, takeN_dropN.
    - apply N.eqb_neq in Ez. rewrite lenN_takeN in Ez.
      assert (Hwhole : takeN cap (cb_last st) = cb_last st) by (apply takeN_all; lia).
      assert (Hnone : dropN cap (cb_last st) = []) by (apply dropN_all; lia).
      rewrite Hwhole, Hnone in Hr. apply cb_loop_spec in Hr; [|reflexivity].
      cbn [cb_u cb_last app] in Hr. exact Hr.
  Qed.

  Lemma cb_rdrains f st out e st' :
    rdrains (cb_read rd f) st out e st' -> e <> EFuel ->
    exists bs, drains rd (cb_u st) bs e (cb_u st') /\ out = cb_last st ++ bs.
  Proof.
    induction 1 as [cap st c e st1 Hr Hne|cap st c st1 bs e st2 Hr _ IH]; intros Hnf.
    - apply cb_read_spec in Hr. destruct Hr as [_ Hko]. destruct (Hko Hne Hnf) as (bs & Hd & <-). eauto.
    - apply cb_read_spec in Hr. destruct Hr as [Hok _]. destruct (Hok eq_refl) as (bs0 & Hp & Hb).
      destruct (IH Hnf) as (bs1 & Hd & ->). exists (bs0 ++ bs1).
      split; [eapply pulls_drains; eassumption|]. rewrite !app_assoc, Hb. reflexivity.
  Qed.
End ChunkBacked.

Section ReadAtFill.
  Variable S : Type.
  Variable rd : S -> (bytes * err) * S.

  Lemma read_at_fill_spec : forall f left got o res e o',
    read_at_fill rd f left got o = ((res, e), o') ->
    (e = ENone -> exists bs, pulls (offset_read rd) o bs o' /\ res = got ++ takeN left bs /\ left <= lenN bs) /\
    (e <> ENone -> e <> EFuel ->
       exists bs, drains (offset_read rd) o bs e o' /\ res = got ++ bs /\ lenN bs < left).
  Proof.
    induction f as [|f IH]; intros left got o res e o' Hr; cbn [read_at_fill] in Hr; destruct (left =? 0) eqn:E0.
    - apply N.eqb_eq in E0. subst. inv Hr. split; [|congruence]. intros _. exists [].
      split; [constructor|]. rewrite app_nil_r, lenN_nil. split; [reflexivity|lia].
    - inv Hr. split; congruence.
    - apply N.eqb_eq in E0. subst. inv Hr. split; [|congruence]. intros _. exists [].
      split; [constructor|]. rewrite app_nil_r, lenN_nil. split; [reflexivity|lia].
    - apply N.eqb_neq in E0.
      destruct (offset_read rd o) as [[c e0] o1] eqn:Hrd.
      destruct (err_none_dec e0) as [->|Hne0].
      2: { rewrite (err_match_failed _ _ _ Hne0) in Hr. inv Hr. split; [congruence|]. intros _ _. exists [].
           split; [eapply drains_end; eassumption|]. rewrite app_nil_r, lenN_nil. split; [reflexivity|lia]. }
      apply IH in Hr. destruct Hr as [Hok Hko]. split.
      + intros He. destruct (Hok He) as (bs & Hp & -> & Hle). exists (c ++ bs).
        split; [econstructor; eassumption|]. rewrite takeN_app, <- app_assoc, lenN_app.
        replace (left - lenN c) with (left - lenN (takeN left c)) by (rewrite lenN_takeN; lia).
        split; [reflexivity|]. rewrite lenN_takeN in Hle. lia.
      + intros Hne Hnf. destruct (Hko Hne Hnf) as (bs & Hd & -> & Hlt). exists (c ++ bs).
        split; [eapply drains_step; eassumption|]. rewrite lenN_takeN in Hlt.
        assert (Hw : takeN left c = c) by (apply takeN_all; lia).
        rewrite Hw, <- app_assoc, lenN_app. split; [reflexivity|]. lia.
  Qed.
End ReadAtFill.

Section ChunkBuffer2.
  Variable H : bytes -> bytes.
  Variable cfg : vcfg.
  Variable fuel : nat.
  Notation rdv := (cv_read H cfg fuel).

  Theorem chunk_bad_param evs m o :
    cas_chunk_reader H cfg fuel evs m = o -> o_err o <> EFuel -> bad_param (g_size cfg) m = true ->
    o_err o = ECode 3 /\ o_data o = [] /\ o_cbs o = [] /\ o_aux o = [].
  Proof.
    intros Ho Hnf Hbp. destruct m; cbn [bad_param] in Hbp; try discriminate; cbn [cas_chunk_reader] in Ho.
    - unfold to_byte_slice_cr in Ho. rewrite Hbp in Ho. subst o. cbn. auto.
    - unfold read_at_cr, offset_init in Ho. rewrite Hbp in Ho.
      set (o0 := mkOst (cv_close (cv_init cfg evs)) [] (ECode 3)) in *.
      assert (Hfix : forall bs e o', drains (offset_read rdv) o0 bs e o' -> e = ECode 3 /\ o' = o0).
      { intros bs e o' Hd. inversion Hd; subst; unfold offset_read in H0; cbn in H0; inv H0; auto. }
      destruct (read_at_fill rdv fuel plen [] o0) as [[got e] o1] eqn:Hfill.
      destruct (read_at_fill_spec _ _ _ _ _ _ _ _ _ Hfill) as [Hok Hko]. cbn [app] in *.
      assert (Hdirect : e <> ENone -> e <> EFuel -> e = ECode 3 /\ o1 = o0).
      { intros Hn1 Hn2. destruct (Hko Hn1 Hn2) as (bs & Hd & _). exact (Hfix _ _ _ Hd). }
      destruct e.
      + destruct (Hok eq_refl) as (bs1 & Hp1 & -> & Hle).
        assert (o1 = o0 /\ bs1 = []) as [-> ->].
        { inversion Hp1; subst; auto. unfold offset_read in H0. cbn in H0. inv H0. }
        destruct (drain (offset_read rdv) fuel [] o0) as [[out2 e2] o2] eqn:Hdr. subst o.
        cbn [o_err o_data o_cbs o_aux cv_out fst snd] in *.
        assert (Hne : e2 <> EFuel) by (destruct e2; cbn in Hnf; congruence).
        destruct (drain_drains _ _ _ _ _ _ _ _ Hdr Hne) as (bs2 & _ & Hd2).
        destruct (Hfix _ _ _ Hd2) as (-> & ->). cbn. auto.
      + destruct Hdirect; congruence.
      + destruct Hdirect; congruence.
      + destruct Hdirect as [Hc ->]; try congruence. subst o. cbn. rewrite Hc. auto.
      + subst o. cbn in Hnf. congruence.
    - apply negb_true_iff in Hbp. rewrite Hbp in Ho. subst o. cbn. auto.
    - unfold to_byte_slice_cr in Ho. rewrite Hbp in Ho. subst o. cbn. auto.
  Qed.

  Theorem chunk_outcome evs m o :
    m <> MDiscard -> cas_chunk_reader H cfg fuel evs m = o -> o_err o <> EFuel ->
    bad_param (g_size cfg) m = false ->
    exists bs e st', drains rdv (cv_init cfg evs) bs e st' /\ e <> EFuel /\
      match e with
      | EEof => completed m (o_err o) = true /\ o_data o = expected_slice m bs
      | _ => o_err o = e /\ o_data o = partial_slice m bs
      end.
  Proof.
    intros Hm Ho Hnf Hbp.
    destruct m; try congruence; cbn [cas_chunk_reader] in Ho; cbn [bad_param completed expected_slice partial_slice] in *.
    - (* ToByteSlice *)
      unfold to_byte_slice_cr in Ho. rewrite Hbp in Ho.
      destruct (drain rdv fuel [] (cv_init cfg evs)) as [[out e] s'] eqn:Hd. subst o.
      assert (Hne : e <> EFuel) by (destruct e; cbn in Hnf; congruence).
      destruct (drain_drains _ _ _ _ _ _ _ _ Hd Hne) as (bs & -> & Hds).
      exists bs, e, s'. rsplit; [exact Hds|exact Hne|]. destruct e; cbn; auto.
    - (* IntoWriter *)
      unfold into_writer_cr in Ho.
      destruct (drain rdv fuel [] (cv_init cfg evs)) as [[out e] s'] eqn:Hd. subst o.
      assert (Hne : e <> EFuel) by (destruct e; cbn in Hnf; congruence).
      destruct (drain_drains _ _ _ _ _ _ _ _ Hd Hne) as (bs & -> & Hds).
      exists bs, e, s'. rsplit; [exact Hds|exact Hne|]. destruct e; cbn; auto.
    - (* ReadAt *)
      apply Z.ltb_ge in Hbp. unfold read_at_cr in Ho.
      set (o0 := offset_init rdv cv_close fuel off (cv_init cfg evs)) in *.
      destruct (read_at_fill rdv fuel plen [] o0) as [[got e] o1] eqn:Hfill.
      destruct (read_at_fill_spec _ _ _ _ _ _ _ _ _ Hfill) as [Hok Hko]. cbn [app] in *.
      assert (Hdirect : e <> ENone -> e <> EFuel ->
                exists bs all s', drains rdv (cv_init cfg evs) all e s' /\ bs = dropN (Z.to_N off) all /\
                                  got = bs /\ lenN bs < plen).
      { intros Hn1 Hn2. destruct (Hko Hn1 Hn2) as (bs & Hdo & -> & Hlt).
        destruct (offset_init_drains _ _ _ _ _ _ _ _ _ Hdo Hbp Hn2) as (all & s' & Hall & Hbs). eauto 8. }
      destruct e.
      + (* p filled: the rest is drained for the sake of validation *)
        destruct (Hok eq_refl) as (bs1 & Hp1 & -> & Hle).
        destruct (drain (offset_read rdv) fuel [] o1) as [[out2 e2] o2] eqn:Hdr. subst o.
        assert (Hne : e2 <> EFuel) by (destruct e2; cbn in Hnf; congruence).
        destruct (drain_drains _ _ _ _ _ _ _ _ Hdr Hne) as (bs2 & _ & Hd2).
        destruct (offset_init_drains _ _ _ _ _ _ _ _ _ (pulls_drains _ _ _ _ _ _ _ _ Hp1 Hd2) Hbp Hne)
          as (all & s' & Hall & Hbs).
        exists all, e2, s'. rsplit; [exact Hall|exact Hne|]. destruct e2; cbn; auto. split; [reflexivity|].
        rewrite <- Hbs, takeN_app. replace (plen - lenN bs1) with 0 by lia. now rewrite takeN_0, app_nil_r.
      + destruct Hdirect as (bs & all & s' & Hall & Hbs & -> & Hlt); try congruence. subst o.
        exists all, EEof, s'. rsplit; [exact Hall|congruence|reflexivity|]. cbn.
        rewrite <- Hbs. symmetry. apply takeN_all. lia.
      + destruct Hdirect as (bs & all & s' & Hall & _); try congruence. subst o.
        exists all, EUnexp, s'. rsplit; [exact Hall|congruence|reflexivity|reflexivity].
      + destruct Hdirect as (bs & all & s' & Hall & _); try congruence. subst o.
        exists all, (ECode c), s'. rsplit; [exact Hall|congruence|reflexivity|reflexivity].
      + subst o. cbn in Hnf. congruence.
    - (* ToChunkReader *)
      apply negb_false_iff in Hbp. rewrite Hbp in Ho.
      unfold valid_offset in Hbp. apply andb_true_iff in Hbp. destruct Hbp as [Hv0 _]. apply Z.leb_le in Hv0.
      set (o0 := offset_init rdv cv_close fuel off (cv_init cfg evs)) in *.
      destruct (drain (norm_read (offset_read rdv) fuel max) fuel [] (mkNst o0 [])) as [[out e] n] eqn:Hd.
      destruct (extra_reads (norm_read (offset_read rdv) fuel max) extra n) as [ex n2]. subst o.
      cbn [o_err o_data cv_out] in *.
      destruct (drain_drains _ _ _ _ _ _ _ _ Hd Hnf) as (bs & -> & Hds). cbn [app].
      apply norm_drains in Hds; [|exact Hnf]. destruct Hds as (bs1 & E & Hdo). cbn [n_last n_u app] in E, Hdo. subst bs1.
      destruct (offset_init_drains _ _ _ _ _ _ _ _ _ Hdo Hv0 Hnf) as (all & s' & Hall & ->).
      exists all, e, s'. rsplit; [exact Hall|exact Hnf|]. destruct e; cbn; auto.
    - (* ToReader *)
      destruct (rconsume (cb_read rdv fuel) fuel caps (last_cap caps) [] (mkCbst (cv_init cfg evs) [])) as [[out e] s] eqn:Hrc.
      destruct (rextra (cb_read rdv fuel) extra (last_cap caps) s) as [ex s2]. subst o.
      cbn [o_err o_data cv_out] in *.
      destruct (rconsume_rdrains _ _ _ _ _ _ _ _ _ _ Hrc Hnf) as (bs & -> & Hd). cbn [app].
      destruct (cb_rdrains _ _ _ _ _ _ _ Hd Hnf) as (bs2 & Hd2 & ->). cbn [cb_u cb_last app] in *.
      exists bs2, e, (cb_u s). rsplit; [exact Hd2|exact Hnf|]. destruct e; cbn; auto.
    - (* CloneCopy *)
      unfold to_byte_slice_cr in Ho. rewrite Hbp in Ho.
      destruct (drain rdv fuel [] (cv_init cfg evs)) as [[out e] s'] eqn:Hd. subst o.
      assert (Hne : e <> EFuel) by (destruct e; cbn in Hnf; congruence).
      destruct (drain_drains _ _ _ _ _ _ _ _ Hd Hne) as (bs & -> & Hds).
      exists bs, e, s'. rsplit; [exact Hds|exact Hne|]. destruct e; cbn; auto.
  Qed.

  Theorem chunk_reader_complete_implies_valid evs m o :
    m <> MDiscard ->
    cas_chunk_reader H cfg fuel evs m = o -> completed m (o_err o) = true ->
    valid_script H cfg evs /\ o_data o = expected_slice m (fst (content evs)).
  Proof.
    intros Hm Ho Hc.
    assert (Hnf : o_err o <> EFuel) by (intros E; rewrite E in Hc; destruct m; discriminate).
    destruct (bad_param (g_size cfg) m) eqn:Hbp.
    { destruct (chunk_bad_param _ _ _ Ho Hnf Hbp) as (E & _). rewrite E, completed_not_code in Hc. discriminate. }
    destruct (chunk_outcome _ _ _ Hm Ho Hnf Hbp) as (bs & e & st' & Hd & Hne & Hout).
    pose proof (drains_not_none _ _ _ _ _ _ Hd) as Hnn.
    destruct e; try congruence.
    - destruct Hout as [_ ->]. destruct (cv_complete _ _ _ _ _ _ Hd) as (Hv & ->). auto.
    - destruct Hout as [E _]. rewrite E in Hc. destruct m; discriminate.
    - destruct Hout as [E _]. rewrite E, completed_not_code in Hc. discriminate.
  Qed.
End ChunkBuffer2.
