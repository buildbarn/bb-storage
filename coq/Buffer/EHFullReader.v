(** C16 — the [ToReader] path: [errorHandlingReader] stitches the streams of
    the unvalidated io.Readers of its underlying buffers, each opened at the
    number of bytes delivered so far (data that arrives together with an I/O
    error counts as delivered); every I/O error is offered to the handler once,
    in order; the validating reader above completes only on the stitched
    stream; no duplicated and no skipped range.  [Section VcrTrace] is about
    the validating CHUNK reader (the IntoWriter / ToChunkReader case);
    [csrc_no_unexp] is about the scripted chunk source. *)
From Coq Require Import List ZArith NArith Bool Lia.
From BBS Require Import Buffer.Source Buffer.Validate Buffer.ErrHandler Buffer.StreamProofs
  Buffer.ValidateProofs Buffer.ValidateReaderProofs Buffer.PreserveProofs Buffer.ErrHandlerProofs
  Buffer.EHFullCarry.
Import ListNotations.
Open Scope N_scope.

Section ReaderStreamLemmas.
  Variable S : Type.
  Variable rd : N -> S -> (bytes * err) * S.
  Lemma rpulls_rdrains s a s' b e s'' : rpulls rd s a s' -> rdrains rd s' b e s'' -> rdrains rd s (a ++ b) e s''.
  Proof.
    induction 1; intros Hd; [exact Hd|]. rewrite <- app_assoc. eapply rdrains_step; eauto.
  Qed.
  Lemma rdrains_inj {T} (rd' : N -> T -> (bytes * err) * T) (f : T -> S) :
    (forall cap t, rd cap (f t) = let '(x, t') := rd' cap t in (x, f t')) ->
    forall t p e s', rdrains rd (f t) p e s' -> exists t', s' = f t' /\ rdrains rd' t p e t'.
  Proof.
    intros Hf t p e s' Hd. remember (f t) as s eqn:Es. revert t Es.
    induction Hd as [cap s c e s1 Hr Hne|cap s c s1 bs e s2 Hr _ IH]; intros t ->; rewrite Hf in Hr;
      destruct (rd' cap t) as [x t1] eqn:Ht; inv Hr.
    - exists t1. split; [reflexivity|]. eapply rdrains_end; eassumption.
    - destruct (IH _ eq_refl) as (t' & -> & Hd'). exists t'. split; [reflexivity|]. eapply rdrains_step; eassumption.
  Qed.
  Lemma rdrains_stuck s x p t s' :
    (forall cap, rd cap s = (([], x), s)) -> rdrains rd s p t s' -> p = [] /\ t = x.
  Proof.
    intros Hs Hd. induction Hd as [cap s c e s1 Hr Hne|cap s c s1 bs e s2 Hr _ IH]; rewrite Hs in Hr; inv Hr; auto.
  Qed.

  (** [P]: an invariant of the reader states under which no read says io.ErrUnexpectedEOF *)
  Variable P : S -> Prop.
  Hypothesis rd_P : forall cap s c e s', P s -> rd cap s = ((c, e), s') -> e <> EUnexp /\ (e = ENone -> P s').
  Lemma rdrains_no_unexp s d t s' : rdrains rd s d t s' -> P s -> t <> EUnexp.
  Proof.
    induction 1 as [cap s c e s1 Hr Hne|cap s c s1 bs e s2 Hr _ IH]; intros Hp; destruct (rd_P _ _ _ _ _ Hp Hr) as (Hnu & Hn); auto.
  Qed.
  Lemma rpulls_P s d s' : rpulls rd s d s' -> P s -> P s'.
  Proof. induction 1 as [s|cap s c s1 bs s2 Hr _ IH]; intros Hp; [exact Hp|]. exact (IH (proj2 (rd_P _ _ _ _ _ Hp Hr) eq_refl)). Qed.
End ReaderStreamLemmas.

Section VrCompare.
  Variable H : bytes -> bytes.
  Variable cfg : vcfg.
  Variable S : Type.
  Lemma vr_compare_code (st : vst S) e st' :
    vr_compare H cfg st = (e, st') -> e = ENone \/ e = ECode (g_code cfg).
  Proof. unfold vr_compare, v_fail. destruct (bytes_eqb _ _); intros X; inv X; auto. Qed.
  Lemma vr_compare_ok (st : vst S) st' : vr_compare H cfg st = (ENone, st') -> g_hash cfg = H (v_acc st).
  Proof.
    unfold vr_compare. destruct (bytes_eqb (g_hash cfg) (H (v_acc st))) eqn:E; [|unfold v_fail; intros X; inv X].
    intros _. now apply bytes_eqb_eq.
  Qed.
End VrCompare.

(** What a validating chunk reader has done to the reader underneath when its own
    stream has ended, however it ended ([ended], [T]): it has pulled some bytes
    [bs], of which the consumer's data is a prefix, and either the reader underneath ended
    ([drains]) with the error passed on (or with io.EOF and a validation
    failure), or the validator stopped by itself because more than the
    digest's size had arrived ([pulls], "too long"). *)
Section VcrTrace.
  Variable H : bytes -> bytes.
  Variable cfg : vcfg.
  Variable S : Type.
  Variable rd : S -> (bytes * err) * S.
  Variable fuel : nat.
  Variable u0 : S.
  Notation vrd := (vcr_read H cfg rd fuel).
  Notation gc := (ECode (g_code cfg)).

  Definition ended (bs : bytes) (u : S) (e : err) : Prop :=
    (exists t, drains rd u0 bs t u /\ (e = t \/ (t = EEof /\ e = gc))) \/
    (pulls rd u0 bs u /\ e = gc /\ g_size cfg < lenN bs).

  Definition T (st : vst S) (out : bytes) : Prop :=
    match v_err st with
    | ENone => pulls rd u0 out (v_u st) /\ v_acc st = out /\ v_rem st + lenN out = g_size cfg
    | e => exists bs r, bs = out ++ r /\ ended bs (v_u st) e
    end.

  Lemma T_init : T (vinit cfg u0) [].
  Proof. unfold T. cbn. rsplit; [constructor|reflexivity|unfold lenN; cbn; lia]. Qed.

  Lemma vcr_read_trace (st : vst S) out c e st' :
    vrd st = ((c, e), st') -> e <> EFuel -> T st out -> v_err st = ENone ->
    T st' (out ++ c) /\ (e <> ENone -> v_err st' = e) /\ (e = ENone -> v_err st' = ENone \/ v_err st' = EEof).
  Proof.
    intros Hr Hnf Ht Herr. unfold T in Ht. rewrite Herr in Ht. destruct Ht as (Hp & Hacc & Hrem). subst out.
    destruct (vcr_read_did _ _ _ _ _ _ _ _ _ Hr Herr) as (Hce & Hok & r & ot & Hran & Hot).
    split; [|split; [intros Hne; exact (proj2 (Hce Hne))|exact Hok]].
    assert (Hx : v_err st' <> EFuel)
      by (intros E; destruct e; [destruct (Hok eq_refl); congruence|destruct (Hce ltac:(congruence)); congruence..]).
    unfold T. destruct ot as [t|]; cbn [ran] in Hran.
    - pose proof (pulls_drains _ _ _ _ _ _ _ _ Hp Hran) as Hd. rewrite app_assoc in Hd.
      pose proof (drains_not_none _ _ _ _ _ _ Hran) as Hn. destruct Hot as (Ht & _).
      assert (He : ended ((v_acc st ++ c) ++ r) (v_u st') (v_err st')) by (left; exists t; auto).
      destruct (v_err st'); [destruct Ht as [?|(_ & ?)]; congruence|exists ((v_acc st ++ c) ++ r), r; auto..].
    - pose proof (pulls_trans _ _ _ _ _ _ _ Hp Hran) as Hp'. rewrite app_assoc in Hp'.
      destruct (v_err st'); try (destruct Hot as (? & _); discriminate); [| |congruence].
      + destruct Hot as (-> & Ha & Hre). rewrite app_nil_r in Hp'. rsplit; [exact Hp'|exact Ha|rewrite lenN_app; lia].
      + destruct Hot as (Hc & Hl). exists ((v_acc st ++ c) ++ r), r. split; [reflexivity|]. right.
        rsplit; [exact Hp'|exact Hc|]. rewrite <- app_assoc, lenN_app. lia.
  Qed.

  Lemma vcr_read_sticky_state (st : vst S) c e st' :
    vrd st = ((c, e), st') -> v_err st <> ENone -> c = [] /\ e = v_err st /\ st' = st.
  Proof. unfold vcr_read. intros Hr Hne. destruct (v_err st); try congruence; inv Hr; auto. Qed.

  Theorem vcr_trace st out bs e st' :
    drains vrd st bs e st' -> e <> EFuel -> T st out -> T st' (out ++ bs) /\ v_err st' = e.
  Proof.
    intros Hd Hnf. revert out. induction Hd as [st c e st1 Hr Hne|st c st1 bs e st2 Hr _ IH]; intros out Ht.
    - destruct (v_err st) eqn:Herr;
        try (destruct (vcr_read_sticky_state _ _ _ _ Hr ltac:(congruence)) as (-> & -> & ->); rewrite app_nil_r; auto; fail).
      destruct (vcr_read_trace _ _ _ _ _ Hr Hnf Ht Herr) as (Ht' & He & _). rewrite app_nil_r in *.
      (* a failing read hands out nothing *)
      assert (c = []) by (destruct (vcr_sticky _ _ _ _ _ _ _ _ _ Hr Hne) as (-> & _); reflexivity). subst c.
      rewrite app_nil_r in Ht'. auto.
    - destruct (v_err st) eqn:Herr; try (destruct (vcr_read_sticky_state _ _ _ _ Hr ltac:(congruence)) as (_ & Hx & _); congruence).
      destruct (vcr_read_trace _ _ _ _ _ Hr ltac:(congruence) Ht Herr) as (Ht' & _ & _).
      rewrite app_assoc. apply IH; assumption.
  Qed.
  Corollary vcr_complete_under out st' :
    drains vrd (vinit cfg u0) out EEof st' -> drains rd u0 out EEof (v_u st').
  Proof.
    intros Hd. destruct (vcr_complete_implies_valid _ _ _ _ _ _ _ _ Hd) as ((u & Hu) & _).
    destruct (vcr_trace _ [] _ _ _ Hd ltac:(congruence) T_init) as (Ht & Herr). unfold T in Ht. rewrite Herr in Ht.
    destruct Ht as (bs & r & E & Hend). cbn [app] in E. subst bs.
    destruct Hend as [(t & Hdr & [<-|(_ & Hgc)])|(_ & Hgc & _)]; try discriminate Hgc.
    destruct (drains_det _ _ _ _ _ _ _ _ _ Hu Hdr) as (_ & _ & <-). exact Hu.
  Qed.
End VcrTrace.

Section VrTrace.
  Variable H : bytes -> bytes.
  Variable cfg : vcfg.
  Variable S : Type.
  Variable rd : N -> S -> (bytes * err) * S.
  Variable fuel : nat.
  Variable u0 : S.
  Variable P : S -> Prop.
  Hypothesis rd_P : forall cap s c e s', P s -> rd cap s = ((c, e), s') -> e <> EUnexp /\ (e = ENone -> P s').
  Notation vrd := (vr_read H cfg rd fuel).
  Notation gc := (ECode (g_code cfg)).

  Definition endedr (bs : bytes) (u : S) (e : err) : Prop :=
    (exists t, rdrains rd u0 bs t u /\ (e = t \/ (t = EEof /\ e = gc) \/ (e = gc /\ g_size cfg < lenN bs))) \/
    (rpulls rd u0 bs u /\ e = gc /\ g_size cfg < lenN bs).

  Definition Tr0 (st : vst S) (out : bytes) : Prop :=
    match v_err st with
    | ENone => rpulls rd u0 out (v_u st) /\ v_acc st = out /\ v_rem st + lenN out = g_size cfg /\ P (v_u st)
    | e => exists bs r, bs = out ++ r /\ endedr bs (v_u st) e
    end.
  (** withholding: a consumer of a stream that did not complete holds fewer than
      [size] bytes *)
  Definition Wv (st : vst S) (out : bytes) : Prop :=
    match v_err st with
    | ENone => 0 < v_rem st \/ out = []
    | EEof => rdrains rd u0 out EEof (v_u st) /\ lenN out = g_size cfg /\ g_hash cfg = H out
    | _ => lenN out < g_size cfg \/ out = []
    end.
  Definition Tr (st : vst S) (out : bytes) : Prop := Tr0 st out /\ Wv st out.

  Lemma Tr_init : P u0 -> Tr (vinit cfg u0) [].
  Proof. intros Hp. split; [|right; reflexivity]. unfold Tr0. cbn. rsplit; [constructor|reflexivity|unfold lenN; cbn; lia|exact Hp]. Qed.

  Lemma rpulls_snoc s a s' cap c s'' : rpulls rd s a s' -> rd cap s' = ((c, ENone), s'') -> rpulls rd s (a ++ c) s''.
  Proof.
    induction 1 as [s|cap0 s c0 s1 bs s2 Hr _ IH]; intros Hc.
    - cbn. rewrite <- (app_nil_r c). eapply rpulls_step; [eassumption|constructor].
    - rewrite <- app_assoc. eapply rpulls_step; [eassumption|]. now apply IH.
  Qed.
  Lemma rpulls_trans s a s' b s'' : rpulls rd s a s' -> rpulls rd s' b s'' -> rpulls rd s (a ++ b) s''.
  Proof. induction 1; intros Hb; [exact Hb|]. rewrite <- app_assoc. eapply rpulls_step; eauto. Qed.

  Lemma vr_read_trace cap (st : vst S) out c e st' :
    vrd cap st = ((c, e), st') -> e <> EFuel -> Tr st out -> v_err st = ENone ->
    Tr st' (out ++ c) /\ v_err st' = e.
  Proof.
    intros Hr Hnf (Ht & Hw) Herr. unfold Tr0 in Ht. unfold Wv in Hw. rewrite Herr in Ht, Hw.
    destruct Ht as (Hp & Hacc & Hrem & HP). subst out.
    assert (Hlt0 : lenN (v_acc st) < g_size cfg \/ v_acc st = []) by (destruct Hw as [?| ->]; [left; lia|auto]).
    destruct (vr_read_did _ _ _ _ _ _ _ _ _ _ Hr Herr) as (He & r & ot & Hran & Hot). split; [|exact He].
    unfold Tr, Tr0, Wv. rewrite He. clear He.
    destruct ot as [t|]; cbn [rran] in Hran.
    - (* the stream underneath has ended, and not with io.ErrUnexpectedEOF *)
      pose proof (rdrains_no_unexp _ _ _ rd_P _ _ _ _ Hran HP) as Hnu.
      pose proof (ReaderBufferProofs.rdrains_not_none _ _ _ _ _ _ Hran) as Hnn.
      pose proof (rpulls_rdrains _ _ _ _ _ _ _ _ Hp Hran) as Hd. rewrite app_assoc in Hd.
      destruct Hot as [(-> & Hc)|(-> & -> & [->|?] & Hl & Hh)]; [|rewrite app_nil_r in *|congruence].
      + rewrite app_nil_r in *.
        assert (He : endedr (v_acc st ++ r) (v_u st') e).
        { left. exists t. split; [exact Hd|]. destruct Hc as [(-> & _)|[([->|?] & ->)|(-> & Hl)]]; auto; [congruence|].
          right. right. split; [reflexivity|rewrite lenN_app; lia]. }
        assert (Hne : e <> ENone /\ e <> EEof) by (destruct Hc as [(-> & ?)|[(_ & ->)|(-> & _)]]; split; congruence).
        destruct e; try (exfalso; destruct Hne; congruence); (split; [exists (v_acc st ++ r), r; auto|exact Hlt0]).
      + split; [exists (v_acc st ++ c), []; rewrite app_nil_r; split; [reflexivity|left; exists EEof; auto]|].
        rsplit; [exact Hd|rewrite lenN_app; lia|exact Hh].
    - pose proof (rpulls_trans _ _ _ _ _ Hp Hran) as Hp'. rewrite app_assoc in Hp'.
      destruct Hot as [(-> & -> & Ha & Hre & Hpos)|(-> & [->|(-> & Hl)])]; [|congruence|]; rewrite app_nil_r in *.
      + split; [rsplit; [exact Hp'|exact Ha|rewrite lenN_app; lia|exact (rpulls_P _ _ _ rd_P _ _ _ Hran HP)]|left; exact Hpos].
      + split; [|exact Hlt0]. exists (v_acc st ++ r), r. split; [reflexivity|]. right. rsplit; [exact Hp'|reflexivity|rewrite lenN_app; lia].
  Qed.

  Lemma vr_read_sticky_state cap (st : vst S) c e st' :
    vrd cap st = ((c, e), st') -> v_err st <> ENone -> c = [] /\ e = v_err st /\ st' = st.
  Proof. unfold vr_read. intros Hr Hne. destruct (v_err st); try congruence; inv Hr; auto. Qed.

  Theorem vr_trace st out bs e st' :
    rdrains vrd st bs e st' -> e <> EFuel -> Tr st out -> Tr st' (out ++ bs) /\ v_err st' = e.
  Proof.
    intros Hd Hnf. revert out. induction Hd as [cap st c e st1 Hr Hne|cap st c st1 bs e st2 Hr _ IH]; intros out Ht.
    - destruct (v_err st) eqn:Herr;
        try (destruct (vr_read_sticky_state _ _ _ _ _ Hr ltac:(congruence)) as (-> & -> & ->); rewrite app_nil_r; auto; fail).
      exact (vr_read_trace _ _ _ _ _ _ Hr Hnf Ht Herr).
    - destruct (v_err st) eqn:Herr;
        try (destruct (vr_read_sticky_state _ _ _ _ _ Hr ltac:(congruence)) as (_ & Hx & _); congruence).
      destruct (vr_read_trace _ _ _ _ _ _ Hr ltac:(congruence) Ht Herr) as (Ht' & _).
      rewrite app_assoc. apply IH; assumption.
  Qed.
  Corollary vr_complete_under bs st' :
    P u0 -> rdrains vrd (vinit cfg u0) bs EEof st' ->
    rdrains rd u0 bs EEof (v_u st') /\ lenN bs = g_size cfg /\ g_hash cfg = H bs.
  Proof.
    intros Hp Hd. destruct (vr_trace _ [] _ _ _ Hd ltac:(congruence) (Tr_init Hp)) as ((_ & Hw) & Herr).
    unfold Wv in Hw. rewrite Herr in Hw. exact Hw.
  Qed.
End VrTrace.

(** casValidatingReader over ANY io.Reader that never says ErrUnexpectedEOF: the
    validated stream completes only on what the reader underneath delivered up
    to ITS io.EOF, which has the digest's size and hash. *)
Corollary vr_complete_under_init H cfg S (rd : N -> S -> (bytes * err) * S) fuel (P : S -> Prop)
  (rd_P : forall cap s c e s', P s -> rd cap s = ((c, e), s') -> e <> EUnexp /\ (e = ENone -> P s')) u0 bs st' :
  P u0 -> rdrains (vr_read H cfg rd fuel) (vinit cfg u0) bs EEof st' ->
  rdrains rd u0 bs EEof (v_u st') /\ lenN bs = g_size cfg /\ g_hash cfg = H bs.
Proof. exact (vr_complete_under H cfg S rd fuel u0 P rd_P bs st'). Qed.

Section RStitch.
  Variable fuel : nat.
  Notation urdr := (urd_read fuel).

  (** [rstitched cur k answers out e offered]: from the current underlying
      io.Reader [cur], with [k] bytes delivered so far, the consumer receives
      [out] and then [e] (whatever buffer sizes it reads with); [offered] are
      the errors passed to OnError.  A piece [p] includes the data that came
      together with the error that ended it. *)
  Inductive rstitched : urd -> N -> list answer -> bytes -> err -> list err -> Prop :=
  | rs_eof cur k ans p cur' :
      rdrains urdr cur p EEof cur' -> rstitched cur k ans p EEof []
  | rs_fail cur k ans p t cur' c :
      rdrains urdr cur p t cur' -> t <> EEof ->
      fst (on_error (mkHst ans []) t) = Fail c -> rstitched cur k ans p (ECode c) [t]
  | rs_replace cur k b rest p t cur' p2 e offs :
      rdrains urdr cur p t cur' -> t <> EEof ->
      rstitched (urd_open fuel b (k + lenN p)) (k + lenN p) rest p2 e offs ->
      rstitched cur k (Replace b :: rest) (p ++ p2) e (t :: offs).

  Lemma rstitched_cons cap cur c cur' k ans out e offs :
    urdr cap cur = ((c, ENone), cur') -> rstitched cur' (k + lenN c) ans out e offs ->
    rstitched cur k ans (c ++ out) e offs.
  Proof.
    intros Hr Hs. inversion Hs; subst.
    - eapply rs_eof. eapply rdrains_step; eassumption.
    - eapply rs_fail; [eapply rdrains_step; eassumption|assumption|assumption].
    - rewrite app_assoc. eapply rs_replace; [eapply rdrains_step; eassumption|assumption|].
      rewrite lenN_app, N.add_assoc. assumption.
  Qed.

  Theorem ehr_stitched r out e r' :
    rdrains (ehr_read fuel) r out e r' ->
    exists offs,
      rstitched (er_cur r) (er_off r) (h_answers (er_h r)) out e offs /\
      h_log (er_h r') = h_log (er_h r) ++ map HOnError offs /\
      er_off r' = er_off r + lenN out.
  Proof.
    induction 1 as [cap r c e r1 Hr Hne|cap r c r1 bs e r2 Hr _ IH];
      destruct (urd_read fuel cap (er_cur r)) as [[data t] cur'] eqn:Hu; destruct (op_done t) eqn:Ht.
    - rewrite (ehr_read_done _ _ _ _ _ _ Hu Ht) in Hr. inv Hr. destruct e; try discriminate Ht; [congruence|].
      exists []. cbn. rewrite app_nil_r. split; [|auto].
      eapply rs_eof. eapply rdrains_end; [eassumption|congruence].
    - rewrite (ehr_read_io _ _ _ _ _ _ Hu Ht) in Hr. destruct (op_done_false _ Ht) as (Hn & He).
      pose proof (on_error_log (er_h r) t) as Hl. pose proof (on_error_answer (er_h r) t) as Ha.
      destruct (on_error (er_h r) t) as [[b|c0] h'] eqn:Ho; cbn [fst snd] in *; inv Hr; [congruence|].
      exists [t]. split; [|cbn; auto].
      eapply rs_fail; [eapply rdrains_end; eassumption|assumption|symmetry; exact Ha].
    - rewrite (ehr_read_done _ _ _ _ _ _ Hu Ht) in Hr. inv Hr. destruct IH as (offs & Hs & Hl & Ho).
      cbn [er_cur er_off er_h] in *. exists offs. split; [eapply rstitched_cons; eassumption|].
      rewrite Hl, Ho, lenN_app. split; [reflexivity|lia].
    - rewrite (ehr_read_io _ _ _ _ _ _ Hu Ht) in Hr. destruct (op_done_false _ Ht) as (Hn & He).
      pose proof (on_error_log (er_h r) t) as Hlg.
      destruct (on_error (er_h r) t) as [[b|c0] h'] eqn:Hoe; cbn [snd] in Hlg; inv Hr.
      destruct IH as (offs & Hs & Hl & Ho). cbn [er_cur er_off er_h] in *.
      exists (t :: offs). rewrite (on_error_replace _ _ _ _ Hoe). split.
      + eapply rs_replace; [eapply rdrains_end; eassumption|assumption|exact Hs].
      + rewrite Hl, Hlg, Ho, lenN_app. cbn [map]. rewrite <- app_assoc. split; [reflexivity|lia].
  Qed.

  Lemma rpiece_spec_full C b k p t cur' :
    carries_full C b -> k <= lenN C ->
    rdrains urdr (urd_open fuel b k) p t cur' ->
    k + lenN p <= lenN C /\ dropN k C = p ++ dropN (k + lenN p) C /\ (t = EEof -> p = dropN k C).
  Proof.
    intros Hc Hk Hd.
    destruct (rlaw_rdrains _ _ _ (urd_rlaw fuel) _ _ _ _ Hd _ (urd_open_carries fuel _ _ _ Hc Hk)) as (C' & E & He).
    destruct (piece_arith _ _ _ _ Hk E) as (A & B & X). auto.
  Qed.

  Theorem rstitched_no_dup_no_skip C : forall cur k ans out e offs,
    rstitched cur k ans out e offs -> e = EEof ->
    forall b, cur = urd_open fuel b k -> carries_full C b -> Forall (ans_carries C) ans ->
    k <= lenN C -> out = dropN k C.
  Proof.
    induction 1 as [cur k ans p cur' Hd|cur k ans p t cur' c Hd Hne Ho|cur k b1 rest p t cur' p2 e offs Hd Hne _ IH];
      intros He b -> Hc Hall Hk.
    - destruct (rpiece_spec_full _ _ _ _ _ _ Hc Hk Hd) as (_ & _ & Hp). auto.
    - discriminate.
    - inversion Hall as [|a l Hb1 Hrest]; subst.
      destruct (rpiece_spec_full _ _ _ _ _ _ Hc Hk Hd) as (Hk' & Hsplit & _).
      rewrite Hsplit. f_equal. eapply IH; eauto.
  Qed.

  Theorem rstitched_prefix C : forall cur k ans out e offs,
    rstitched cur k ans out e offs ->
    forall b, cur = urd_open fuel b k -> carries_full C b -> Forall (ans_carries C) ans ->
    k <= lenN C -> exists rest, dropN k C = out ++ rest.
  Proof.
    induction 1 as [cur k ans p cur' Hd|cur k ans p t cur' c Hd Hne Ho|cur k b1 rest p t cur' p2 e offs Hd Hne _ IH];
      intros b -> Hc Hall Hk.
    - destruct (rpiece_spec_full _ _ _ _ _ _ Hc Hk Hd) as (_ & Hs & _). eauto.
    - destruct (rpiece_spec_full _ _ _ _ _ _ Hc Hk Hd) as (_ & Hs & _). eauto.
    - inversion Hall as [|a l Hb1 Hrest]; subst.
      destruct (rpiece_spec_full _ _ _ _ _ _ Hc Hk Hd) as (Hk' & Hsplit & _).
      destruct (IH _ eq_refl Hb1 Hrest Hk') as (r & Hr). exists r. rewrite Hsplit, Hr, app_assoc. reflexivity.
  Qed.

  Lemma rstitched_result cur k ans out e offs :
    rstitched cur k ans out e offs ->
    e = EEof \/
    exists c pre t, e = ECode c /\ offs = pre ++ [t] /\
                    fst (on_error (mkHst (skipn (length pre) ans) []) t) = Fail c.
  Proof.
    induction 1 as [cur k ans p cur' Hd|cur k ans p t cur' c Hd Hne Ho|cur k b1 rest p t cur' p2 e offs Hd Hne _ IH].
    - left. reflexivity.
    - right. exists c, [], t. auto.
    - destruct IH as [->|(c & pre & t' & -> & -> & Ho)]; [left; reflexivity|].
      right. exists c, (t :: pre), t'. auto.
  Qed.
End RStitch.

Lemma csrc_no_unexp s c e s' : csrc_read s = ((c, e), s') -> e <> EUnexp.
Proof. unfold csrc_read. destruct (c_rest s) as [|[bs|x|] r]; intros Hr; inv Hr; congruence. Qed.
