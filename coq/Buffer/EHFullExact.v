(** C16 — the stitched stream in closed form: for well-formed buffers (a reader
    that attaches EOF to data has a script of chunks and at most one final Eof
    event — what the harness generates) and as long as the model does not run
    out of fuel, the relation [stitched] / [rstitched] IS the monitor's
    specification function [stitch] (Run/R16.v): what one buffer delivers from
    offset k is [piece_of b k], for every buffer kind, on the chunk-reader path
    and on the io.Reader path. *)
From Coq Require Import List ZArith NArith Bool Lia.
From BBS Require Import Buffer.Source Buffer.Convert Buffer.ErrHandler Buffer.StreamProofs
  Buffer.ValidateProofs Buffer.ValidateReaderProofs Buffer.ConvertProofs Buffer.ReaderBufferProofs
  Buffer.ConvertProofs2 Buffer.ErrHandlerProofs Buffer.EHFullCarry Buffer.EHFullReader Run.R16.
Import ListNotations.
Open Scope N_scope.

Definition wf_buf (b : bufscript) : Prop :=
  match b with BReader evs true => clean_script evs | _ => True end.
Definition wf_ans (a : answer) : Prop := match a with Replace b => wf_buf b | Fail _ => True end.

Definition wfR (s : rsrc) : Prop := r_attach s = true -> clean_script (r_rest s).

Lemma clean_tail_nil bs r : clean_script (Chunk bs :: r) -> clean_script r.
Proof. cbn. auto. Qed.

(** an error that comes with data: the script is exhausted and it is io.EOF *)
Lemma rsrc_exact cap s c e s' :
  rsrc_read cap s = ((c, e), s') -> wfR s ->
  wfR s' /\
  match e with
  | ENone => rcont s = (c ++ fst (rcont s'), snd (rcont s'))
  | _ => rcont s = (c, e) /\ (c <> [] -> e = EEof /\ rcont s' = ([], EEof))
  end.
Proof.
  intros Hr Hw. pose proof (rsrc_spec _ _ _ _ _ Hr) as Hs. pose proof (rsrc_attach _ _ _ _ _ Hr) as Ha.
  unfold rsrc_read in Hr. unfold wfR in *. rewrite Ha.
  destruct (r_rest s) as [|[bs|x|] r] eqn:Er.
  - inv Hr. split; [rewrite Er; auto|]. split; [exact Hs|congruence].
  - destruct (is_nil (dropN cap bs)) eqn:En; cbn [negb] in Hr.
    + destruct (r_attach s) eqn:Eat.
      * specialize (Hw eq_refl). cbn in Hw.
        destruct r as [|[bs2|x2|] r2]; inv Hr; cbn [r_rest]; try contradiction.
        -- split; [auto|]. split; [exact Hs|]. intros _. split; reflexivity.
        -- split; [intros _; exact Hw|exact Hs].
        -- cbn in Hw. subst r2. split; [intros _; exact Logic.I|]. split; [exact Hs|]. intros _. split; reflexivity.
      * inv Hr. split; [intros; congruence|exact Hs].
    + inv Hr. cbn [r_rest]. split; [|exact Hs]. intros E. specialize (Hw E). exact Hw.
  - inv Hr. split; [|split; [exact Hs|congruence]]. cbn [r_rest]. intros E. specialize (Hw E). cbn in Hw. contradiction.
  - inv Hr. split; [|split; [exact Hs|congruence]]. cbn [r_rest]. intros E. specialize (Hw E). cbn in Hw. subst r. exact Logic.I.
Qed.

Lemma rdrains_rcont s p t s' : rdrains rsrc_read s p t s' -> rcont s = (p, t).
Proof.
  induction 1 as [cap s c e s1 Hr Hne|cap s c s1 bs e s2 Hr _ IH].
  - pose proof (rsrc_spec _ _ _ _ _ Hr) as Hs. destruct e; congruence.
  - pose proof (rsrc_spec _ _ _ _ _ Hr) as Hs. cbn in Hs. rewrite Hs, IH. reflexivity.
Qed.

Lemma read_full_exact : forall f want got s res e s',
  read_full_loop rsrc_read f want got s = ((res, e), s') -> wfR s -> e <> EFuel ->
  exists d, res = got ++ d /\ wfR s' /\
    match e with
    | ENone => rcont s = (d ++ fst (rcont s'), snd (rcont s'))
    | EEof | EUnexp => rcont s = (d, EEof)
    | _ => rcont s = (d, e)
    end.
Proof.
  induction f as [|f IH]; intros want got s res e s' Hr Hw Hnf; cbn [read_full_loop] in Hr;
    destruct (want <=? lenN got) eqn:Ew.
  - inv Hr. exists []. rewrite app_nil_r. rsplit; auto. cbn. destruct (rcont s'); reflexivity.
  - inv Hr. congruence.
  - inv Hr. exists []. rewrite app_nil_r. rsplit; auto. cbn. destruct (rcont s'); reflexivity.
  - apply N.leb_gt in Ew. destruct (rsrc_read (want - lenN got) s) as [[c e0] s1] eqn:Hrd.
    destruct (rsrc_exact _ _ _ _ _ Hrd Hw) as (Hw1 & Hx).
    pose proof (rsrc_no_unexp _ _ _ _ _ Hrd) as Hnu.
    assert (Herr : e0 <> ENone -> rcont s = (c, e0) /\ (c <> [] -> e0 = EEof /\ rcont s1 = ([], EEof)) ->
      (if want <=? lenN (got ++ c) then ((got ++ c, ENone), s1)
       else match e0 with
            | EEof => ((got ++ c, if is_nil (got ++ c) then EEof else EUnexp), s1)
            | _ => ((got ++ c, e0), s1)
            end) = ((res, e), s') ->
      exists d, res = got ++ d /\ wfR s' /\
        match e with
        | ENone => rcont s = (d ++ fst (rcont s'), snd (rcont s'))
        | EEof | EUnexp => rcont s = (d, EEof)
        | _ => rcont s = (d, e)
        end).
    { intros Hne (Hc & Hd) Hy. destruct (want <=? lenN (got ++ c)) eqn:Ew2.
      - apply N.leb_le in Ew2. inv Hy. exists c. rsplit; auto.
        assert (Hcn : c <> []) by (intros ->; rewrite app_nil_r in Ew2; lia).
        destruct (Hd Hcn) as (-> & Hs1). rewrite Hc, Hs1. cbn. now rewrite app_nil_r.
      - destruct e0; try congruence.
        + inv Hy. exists c. rsplit; auto. destruct (is_nil (got ++ c)); exact Hc.
        + inv Hy. exists c. rsplit; auto. }
    destruct e0; try (apply Herr; [congruence|exact Hx|exact Hr]).
    destruct (IH _ _ _ _ _ _ Hr Hw1 Hnf) as (d & -> & Hw' & Hm).
    exists (c ++ d). rewrite <- app_assoc. rsplit; auto. rewrite Hx.
    destruct e; try congruence; rewrite Hm; cbn; rewrite <- ?app_assoc; reflexivity.
Qed.

Lemma copy_n_exact : forall f left s e s',
  copy_n_loop rsrc_read f left s = (e, s') -> wfR s -> e <> EFuel ->
  match e with
  | ENone => left <= lenN (fst (rcont s)) /\ wfR s' /\
             rcont s' = (dropN left (fst (rcont s)), snd (rcont s))
  | _ => lenN (fst (rcont s)) < left /\ e = snd (rcont s)
  end.
Proof.
  induction f as [|f IH]; intros left s e s' Hr Hw Hnf; cbn [copy_n_loop] in Hr;
    destruct (left =? 0) eqn:E0.
  - apply N.eqb_eq in E0. subst. inv Hr. rsplit; auto; [lia|]. rewrite dropN_0. destruct (rcont s'); reflexivity.
  - inv Hr. congruence.
  - apply N.eqb_eq in E0. subst. inv Hr. rsplit; auto; [lia|]. rewrite dropN_0. destruct (rcont s'); reflexivity.
  - apply N.eqb_neq in E0. destruct (rsrc_read (N.min discard_buf left) s) as [[c e0] s1] eqn:Hrd.
    destruct (rsrc_exact _ _ _ _ _ Hrd Hw) as (Hw1 & Hx).
    pose proof (rsrc_cap _ _ _ _ _ Hrd) as Hcap. assert (Hcl : lenN c <= left) by lia.
    assert (Herr : e0 <> ENone -> rcont s = (c, e0) /\ (c <> [] -> e0 = EEof /\ rcont s1 = ([], EEof)) ->
      (if left - lenN c =? 0 then ENone else e0, s1) = (e, s') ->
      match e with
      | ENone => left <= lenN (fst (rcont s)) /\ wfR s' /\ rcont s' = (dropN left (fst (rcont s)), snd (rcont s))
      | _ => lenN (fst (rcont s)) < left /\ e = snd (rcont s)
      end).
    { intros Hne (Hc & Hd) Hy. destruct (left - lenN c =? 0) eqn:Ez.
      - apply N.eqb_eq in Ez. inv Hy. assert (Hcn : c <> []) by (intros ->; rewrite lenN_nil in Ez; lia).
        destruct (Hd Hcn) as (-> & Hs1). rewrite Hc, Hs1. cbn [fst snd]. rsplit; auto; [lia|].
        rewrite dropN_all by lia. reflexivity.
      - apply N.eqb_neq in Ez. inv Hy. rewrite Hc. cbn [fst snd]. destruct e; try congruence; split; auto; lia. }
    destruct e0; try (apply Herr; [congruence|exact Hx|exact Hr]).
    specialize (IH _ _ _ _ Hr Hw1 Hnf). rewrite Hx. cbn [fst snd].
    destruct e; try congruence.
    + destruct IH as (Hl & Hw' & Hc'). rewrite lenN_app. rsplit; auto; [lia|].
      rewrite Hc', dropN_app_ge by assumption. reflexivity.
    + destruct IH as (Hl & ->). rewrite lenN_app. split; [lia|reflexivity].
    + destruct IH as (Hl & He). rewrite lenN_app. split; [lia|exact He].
    + destruct IH as (Hl & He). rewrite lenN_app. split; [lia|exact He].
Qed.

Lemma discard_reader_exact fuel k evs a e s :
  discard_from_reader rsrc_read fuel (Z.of_N k) (mkRsrc evs a 0) = (e, s) -> wf_buf (BReader evs a) -> e <> EFuel ->
  match e with
  | ENone => wfR s /\ piece_of (BReader evs a) k = rcont s
  | _ => piece_of (BReader evs a) k = ([], e)
  end.
Proof.
  unfold discard_from_reader. intros Hd Hwf Hnf.
  destruct (Z.of_N k <? 0)%Z eqn:Hneg; [apply Z.ltb_lt in Hneg; lia|]. rewrite N2Z.id in Hd.
  assert (Hw0 : wfR (mkRsrc evs a 0)) by (unfold wfR; cbn; intros ->; exact Hwf).
  pose proof (copy_n_exact _ _ _ _ _ Hd Hw0 Hnf) as Hx. unfold rcont in *. cbn [r_rest] in Hx.
  unfold piece_of, ucontent. destruct (content evs) as [c0 t0]. cbn [fst snd] in Hx.
  destruct e; try congruence; try (destruct Hx as (Hlt & ->); apply N.leb_gt in Hlt; rewrite Hlt; reflexivity).
  destruct Hx as (Hle & Hw & ->). apply N.leb_le in Hle. rewrite Hle. auto.
Qed.

(** the reader-backed chunk reader: its pending error is part of what is left *)
Definition rb_cont (r : rbst rsrc) : bytes * err :=
  match rb_err r with ENone => rcont (rb_u r) | e => ([], e) end.
Definition rb_ok (r : rbst rsrc) : Prop :=
  rb_err r <> EUnexp /\ (rb_err r = ENone -> wfR (rb_u r)).

Lemma rb_drains_exact ifuel max r p t r' :
  drains (rb_read rsrc_read ifuel max) r p t r' -> rb_ok r -> t <> EFuel -> rb_cont r = (p, t).
Proof.
  induction 1 as [r c e r1 Hr Hne|r c r1 bs e r2 Hr Hrest IH]; intros (Hnu & Hw) Hnf; unfold rb_read in Hr.
  - unfold rb_cont. destruct (rb_err r) eqn:Ee; try (inv Hr; reflexivity).
    destruct (read_full rsrc_read ifuel max (rb_u r)) as [[data e0] u'] eqn:Hf. unfold read_full in Hf.
    destruct (is_nil data) eqn:En; cbn [negb] in Hr; [|inv Hr; congruence].
    apply is_nil_true in En. subst data. inv Hr.
    assert (He0 : e0 <> EFuel) by (destruct e0; congruence).
    destruct (read_full_exact _ _ _ _ _ _ _ Hf (Hw eq_refl) He0) as (d & E & _ & Hm). cbn in E. subst d.
    destruct e0; try congruence; exact Hm.
  - unfold rb_cont. destruct (rb_err r) eqn:Ee; try (inv Hr; fail).
    destruct (read_full rsrc_read ifuel max (rb_u r)) as [[data e0] u'] eqn:Hf. unfold read_full in Hf.
    assert (Hshape : c = data /\ r1 = mkRbst u' (match e0 with EUnexp => EEof | _ => e0 end)).
    { destruct (is_nil data) eqn:En; cbn [negb] in Hr.
      - apply is_nil_true in En. inv Hr. auto.
      - inv Hr. auto. }
    destruct Hshape as (-> & ->). clear Hr.
    assert (Hok1 : rb_ok (mkRbst u' (match e0 with EUnexp => EEof | _ => e0 end)) -> e0 <> EFuel ->
                   rcont (rb_u r) = (data ++ bs, e)).
    { intros Hok He0. specialize (IH Hok Hnf). unfold rb_cont in IH. cbn [rb_err rb_u] in IH.
      destruct (read_full_exact _ _ _ _ _ _ _ Hf (Hw eq_refl) He0) as (d & E & Hw' & Hm). cbn in E. subst d.
      destruct e0; try congruence.
      - rewrite Hm, IH. reflexivity.
      - inv IH. rewrite Hm, app_nil_r. reflexivity.
      - inv IH. rewrite Hm, app_nil_r. reflexivity.
      - inv IH. rewrite Hm, app_nil_r. reflexivity. }
    (* a pending EFuel would be the end of the stream *)
    assert (He0 : e0 <> EFuel).
    { intros ->. inversion Hrest as [? ? ? ? H0 ?|? ? ? ? ? ? H0 ?]; subst.
      - unfold rb_read in H0. cbn in H0. inv H0. congruence.
      - unfold rb_read in H0. cbn in H0. inv H0. }
    apply Hok1; [|exact He0]. split; cbn.
    + destruct e0; congruence.
    + intros E. destruct (read_full_exact _ _ _ _ _ _ _ Hf (Hw eq_refl) He0) as (d & _ & Hw' & _).
      destruct e0; try discriminate. exact Hw'.
Qed.

Lemma piece_of_chunk evs k :
  piece_of (BChunk evs) k =
  if k <=? lenN (fst (content evs)) then (dropN k (fst (content evs)), snd (content evs))
  else ([], snd (content evs)).
Proof. unfold piece_of, ucontent. destruct (content evs); reflexivity. Qed.

Lemma stitch_eof b k ans p : piece_of b k = (p, EEof) -> stitch b k ans = (p, EEof, []).
Proof. intros Hp. destruct ans; cbn [stitch]; rewrite Hp; reflexivity. Qed.
Lemma stitch_fail b k ans p t c :
  piece_of b k = (p, t) -> t <> EEof -> fst (on_error (mkHst ans []) t) = Fail c ->
  stitch b k ans = (p, ECode c, [t]).
Proof.
  intros Hp Hne Ho. unfold on_error in Ho.
  destruct ans as [|[b'|c'] rest]; cbn in Ho; try discriminate; inv Ho; cbn [stitch]; rewrite Hp;
    destruct t; try congruence; reflexivity.
Qed.
Lemma stitch_replace b k b' rest p t p2 e offs :
  piece_of b k = (p, t) -> t <> EEof -> stitch b' (k + lenN p) rest = (p2, e, offs) ->
  stitch b k (Replace b' :: rest) = (p ++ p2, e, t :: offs).
Proof. intros Hp Hne Hs. cbn [stitch]. rewrite Hp, Hs. destruct t; try congruence; reflexivity. Qed.

Section ExactPieces.
  Variable ifuel : nat.
  Variable max : N.

  Lemma urb_drains cur p t cur' :
    drains (ucr_read ifuel max) cur p t cur' -> forall r, cur = URb r ->
    exists r', cur' = URb r' /\ drains (rb_read rsrc_read ifuel max) r p t r'.
  Proof. intros Hd r ->. exact (drains_inj _ _ URb (fun _ => eq_refl) _ _ _ _ Hd). Qed.
  Lemma ufail_drains x s p t cur' : drains (ucr_read ifuel max) (UFail x s) p t cur' -> p = [] /\ t = x.
  Proof. apply drains_stuck. reflexivity. Qed.
  Lemma uerr_drains_any x p t cur' : drains (ucr_read ifuel max) (UErr x) p t cur' -> p = [] /\ t = x.
  Proof. apply drains_stuck. reflexivity. Qed.

  Theorem piece_exact b k p t cur' :
    drains (ucr_read ifuel max) (ucr_open ifuel b k) p t cur' -> t <> EFuel -> wf_buf b ->
    piece_of b k = (p, t).
  Proof.
    intros Hd Hnf Hwf. destruct b as [evs|evs a|d|x].
    - rewrite piece_of_chunk.
      destruct (piece_chunk _ _ _ _ _ _ _ Hd Hnf) as (-> & [[Hle ->]|[Hlt ->]]).
      + apply N.leb_le in Hle. rewrite Hle. reflexivity.
      + apply N.leb_gt in Hlt. rewrite Hlt. reflexivity.
    - cbn [ucr_open] in Hd.
      destruct (discard_from_reader rsrc_read ifuel (Z.of_N k) (mkRsrc evs a 0)) as [e s] eqn:Hc.
      pose proof (discard_reader_exact _ _ _ _ _ _ Hc Hwf) as Hx.
      destruct e; try (destruct (ufail_drains _ _ _ _ _ Hd) as (-> & ->); exact (Hx Hnf)).
      destruct (Hx ltac:(congruence)) as (Hw & ->).
      destruct (urb_drains _ _ _ _ Hd _ eq_refl) as (r' & _ & Hdr).
      assert (Hok : rb_ok (mkRbst s ENone)) by (split; cbn; [congruence|auto]).
      exact (rb_drains_exact _ _ _ _ _ _ Hdr Hok Hnf).
    - cbn [ucr_open] in Hd. unfold piece_of, ucontent. destruct (k <=? lenN d) eqn:E.
      + destruct (ubs_drains _ _ _ _ _ _ Hd _ eq_refl) as (d' & _ & Hdb).
        destruct (bs_read_drains _ _ _ _ _ Hdb) as (-> & ->). reflexivity.
      + destruct (uerr_drains_any _ _ _ _ Hd) as (-> & ->). reflexivity.
    - cbn [ucr_open] in Hd. destruct (uerr_drains_any _ _ _ _ Hd) as (-> & ->).
      unfold piece_of, ucontent. cbn. destruct (k <=? 0) eqn:E; [|reflexivity].
      apply N.leb_le in E. assert (k = 0) by lia. subst. reflexivity.
  Qed.

  Theorem stitched_is_stitch : forall cur k ans out e offs,
    stitched ifuel max cur k ans out e offs ->
    forall b, cur = ucr_open ifuel b k -> wf_buf b -> Forall wf_ans ans ->
    ~ In EFuel offs -> stitch b k ans = (out, e, offs).
  Proof.
    induction 1 as [cur k ans p cur' Hd|cur k ans p t cur' c Hd Hne Ho|cur k b1 rest p t cur' p2 e offs Hd Hne _ IH];
      intros b -> Hwf Hall Hnf.
    - apply stitch_eof. exact (piece_exact _ _ _ _ _ Hd ltac:(congruence) Hwf).
    - apply stitch_fail; [apply (piece_exact _ _ _ _ _ Hd); [|exact Hwf]|exact Hne|exact Ho].
      intros ->. apply Hnf. left. reflexivity.
    - inversion Hall as [|a l Hb1 Hrest]; subst.
      apply stitch_replace; [apply (piece_exact _ _ _ _ _ Hd); [|exact Hwf]|exact Hne|].
      + intros ->. apply Hnf. left. reflexivity.
      + apply (IH _ eq_refl Hb1 Hrest). intros Hin. apply Hnf. right. exact Hin.
  Qed.
End ExactPieces.

Theorem ehc_stream_is_stitch ifuel fuel max b h out e r' :
  drains (ehc_read ifuel fuel max) (ehc_init ifuel b h) out e r' ->
  wf_buf b -> Forall wf_ans (h_answers h) ->
  e <> EFuel -> ~ In (HOnError EFuel) (h_log (ec_h r')) ->
  exists offered, stitch b 0 (h_answers h) = (out, e, offered) /\
                  h_log (ec_h r') = h_log h ++ map HOnError offered.
Proof.
  intros Hd Hwf Hall Hne Hlog.
  destruct (ehc_stitched _ _ _ _ _ _ _ Hd Hne) as (offs & Hs & Hl & _). cbn [ehc_init ec_cur ec_off ec_h] in *.
  exists offs. split; [|exact Hl].
  eapply stitched_is_stitch; [exact Hs|reflexivity|exact Hwf|exact Hall|].
  intros Hin. apply Hlog. rewrite Hl. apply in_or_app. right. apply in_map. exact Hin.
Qed.

Lemma offset_chunk_exact fuel evs k p t o' :
  drains (offset_read csrc_read) (offset_init csrc_read csrc_close fuel (Z.of_N k) (mkCsrc evs 0)) p t o' ->
  t <> EFuel -> piece_of (BChunk evs) k = (p, t).
Proof.
  intros Hdo Hnf. rewrite piece_of_chunk.
  destruct (offset_chunk_drains _ _ _ _ _ _ Hdo Hnf) as (-> & [[Hle ->]|[Hlt ->]]).
  - apply N.leb_le in Hle. rewrite Hle. reflexivity.
  - apply N.leb_gt in Hlt. rewrite Hlt. reflexivity.
Qed.

Lemma bb_rdrains d p t d' : rdrains bb_read d p t d' -> p = d /\ t = EEof.
Proof.
  induction 1 as [cap d c e d1 Hr Hne|cap d c d1 bs e d2 Hr _ IH]; unfold bb_read in Hr.
  - destruct (is_nil d) eqn:En; [|inv Hr; congruence]. apply is_nil_true in En. subst d.
    destruct (cap =? 0); inv Hr; [congruence|auto].
  - destruct IH as (-> & ->). destruct (is_nil d) eqn:En.
    + apply is_nil_true in En. subst d. destruct (cap =? 0); inv Hr. auto.
    + inv Hr. rewrite takeN_dropN. auto.
Qed.

Section ExactReaderPieces.
  Variable fuel : nat.

  Lemma rcb_rdrains cur p t cur' :
    rdrains (urd_read fuel) cur p t cur' -> forall c, cur = RCb c ->
    exists c', cur' = RCb c' /\ rdrains (cb_read (offset_read csrc_read) fuel) c p t c'.
  Proof. intros Hd c ->. exact (rdrains_inj _ _ _ RCb (fun _ _ => eq_refl) _ _ _ _ Hd). Qed.
  Lemma rraw_rdrains cur p t cur' :
    rdrains (urd_read fuel) cur p t cur' -> forall s, cur = RRaw s ->
    exists s', cur' = RRaw s' /\ rdrains rsrc_read s p t s'.
  Proof. intros Hd s ->. exact (rdrains_inj _ _ _ RRaw (fun _ _ => eq_refl) _ _ _ _ Hd). Qed.
  Lemma rbb_rdrains cur p t cur' :
    rdrains (urd_read fuel) cur p t cur' -> forall d, cur = RBb d ->
    exists d', cur' = RBb d' /\ rdrains bb_read d p t d'.
  Proof. intros Hd d ->. exact (rdrains_inj _ _ _ RBb (fun _ _ => eq_refl) _ _ _ _ Hd). Qed.
  Lemma rerr_rdrains u p t cur' :
    rdrains (urd_read fuel) u p t cur' -> forall x, (u = RErr x \/ exists s, u = RFail x s) -> p = [] /\ t = x.
  Proof. intros Hd x [->|(s & ->)]; (eapply rdrains_stuck; [|exact Hd]); reflexivity. Qed.

  Theorem rpiece_exact b k p t cur' :
    rdrains (urd_read fuel) (urd_open fuel b k) p t cur' -> t <> EFuel -> wf_buf b ->
    piece_of b k = (p, t).
  Proof.
    intros Hd Hnf Hwf. destruct b as [evs|evs a|d|x].
    - cbn [urd_open] in Hd. destruct (rcb_rdrains _ _ _ _ Hd _ eq_refl) as (c' & _ & Hdc).
      destruct (cb_rdrains _ _ _ _ _ _ _ Hdc Hnf) as (bs & Hdo & ->). cbn [cb_u cb_last app] in *.
      eapply offset_chunk_exact; eassumption.
    - cbn [urd_open] in Hd.
      destruct (discard_from_reader rsrc_read fuel (Z.of_N k) (mkRsrc evs a 0)) as [e s] eqn:Hc.
      pose proof (discard_reader_exact _ _ _ _ _ _ Hc Hwf) as Hx.
      destruct e;
        try (destruct (rerr_rdrains _ _ _ _ Hd _ (or_intror (ex_intro _ _ eq_refl))) as (-> & ->); exact (Hx Hnf)).
      destruct (Hx ltac:(congruence)) as (_ & ->).
      destruct (rraw_rdrains _ _ _ _ Hd _ eq_refl) as (s' & _ & Hdr). exact (rdrains_rcont _ _ _ _ Hdr).
    - cbn [urd_open] in Hd. unfold piece_of, ucontent. destruct (k <=? lenN d) eqn:E.
      + destruct (rbb_rdrains _ _ _ _ Hd _ eq_refl) as (d' & _ & Hdb).
        destruct (bb_rdrains _ _ _ _ Hdb) as (-> & ->). reflexivity.
      + destruct (rerr_rdrains _ _ _ _ Hd _ (or_introl eq_refl)) as (-> & ->). reflexivity.
    - cbn [urd_open] in Hd. destruct (rerr_rdrains _ _ _ _ Hd _ (or_introl eq_refl)) as (-> & ->).
      unfold piece_of, ucontent. cbn. destruct (k <=? 0) eqn:E; [|reflexivity].
      apply N.leb_le in E. assert (k = 0) by lia. subst. reflexivity.
  Qed.

  Theorem rstitched_is_stitch : forall cur k ans out e offs,
    rstitched fuel cur k ans out e offs ->
    forall b, cur = urd_open fuel b k -> wf_buf b -> Forall wf_ans ans ->
    ~ In EFuel offs -> stitch b k ans = (out, e, offs).
  Proof.
    induction 1 as [cur k ans p cur' Hd|cur k ans p t cur' c Hd Hne Ho|cur k b1 rest p t cur' p2 e offs Hd Hne _ IH];
      intros b -> Hwf Hall Hnf.
    - apply stitch_eof. exact (rpiece_exact _ _ _ _ _ Hd ltac:(congruence) Hwf).
    - apply stitch_fail; [apply (rpiece_exact _ _ _ _ _ Hd); [|exact Hwf]|exact Hne|exact Ho].
      intros ->. apply Hnf. left. reflexivity.
    - inversion Hall as [|a l Hb1 Hrest]; subst.
      apply stitch_replace; [apply (rpiece_exact _ _ _ _ _ Hd); [|exact Hwf]|exact Hne|].
      + intros ->. apply Hnf. left. reflexivity.
      + apply (IH _ eq_refl Hb1 Hrest). intros Hin. apply Hnf. right. exact Hin.
  Qed.
End ExactReaderPieces.

Theorem ehr_stream_is_stitch fuel b h out e r' :
  rdrains (ehr_read fuel) (ehr_init fuel b h) out e r' ->
  wf_buf b -> Forall wf_ans (h_answers h) ->
  ~ In (HOnError EFuel) (h_log (er_h r')) ->
  exists offered, stitch b 0 (h_answers h) = (out, e, offered) /\
                  h_log (er_h r') = h_log h ++ map HOnError offered.
Proof.
  intros Hd Hwf Hall Hlog.
  destruct (ehr_stitched _ _ _ _ _ Hd) as (offs & Hs & Hl & _). cbn [ehr_init er_cur er_off er_h] in *.
  exists offs. split; [|exact Hl].
  eapply rstitched_is_stitch; [exact Hs|reflexivity|exact Hwf|exact Hall|].
  intros Hin. apply Hlog. rewrite Hl. apply in_or_app. right. apply in_map. exact Hin.
Qed.
