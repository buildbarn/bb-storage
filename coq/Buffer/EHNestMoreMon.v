(** C16N — the monitor on the model's own observation, all clauses.

    Clause 2 of [mon16N] ("the outermost handler's last answer was an error:
    that error is what the consumer gets") FIRES on the model for an input of
    [dom16N] ([clause2_fires_on_the_model]; replayed on the real code: the
    implementation's observation is the model's): with ToReader, a chunk-reader
    backed leaf hands out data together with its I/O error, the handler answers
    with an error, and the casValidatingReader finds the data longer than the
    digest's size BEFORE it looks at the error, so the consumer gets the
    validator's INVALID_ARGUMENT / INTERNAL instead of the handler's error.
    C16's monitor has an exception for this ([toolong] in Run/R16.v), C16N's
    has none: a false alarm of the monitor, not a defect of the code.

    Outside that situation the clause is silent: [mon16N inp (run16N inp) = []]
    for every input of [dom16N] whose model run does not end in the out-of-fuel
    marker and, for ToReader, does not end in the validator's own error code. *)
From Coq Require Import List ZArith NArith Bool Lia.
From BBS Require Import Common.Sx Buffer.Source Buffer.Validate Buffer.EHNest Buffer.EHNestRules
  Buffer.EHNestMoreRoot Run.R09 Run.R16N Run.R16NProofs.
Import ListNotations.
Open Scope Z_scope.

Definition w2_inp : sx := L [A 1; L [A 3; L [A 73; A 17; A 229; A 22; A 229; A 170; A 33; A 211; A 39; A 81; A 46; A 12; A 139; A 25; A 118; A 22]; A 1]; L [A 4; L [A 0; L [L [A 0; L [A 97; A 98]]; L [A 1; A 4]]]; L [L [A 1; A 7]]]; L [A 4; L [A 8]; A 0]; L [L [L [A 97; A 98; A 100]; L [A 73; A 17; A 229; A 22; A 229; A 170; A 33; A 211; A 39; A 81; A 46; A 12; A 139; A 25; A 118; A 22]]; L [L [A 97]; L [A 12; A 193; A 117; A 185; A 192; A 241; A 182; A 168; A 49; A 195; A 153; A 226; A 105; A 119; A 38; A 97]]; L [L [A 97; A 98]; L [A 24; A 126; A 244; A 67; A 97; A 34; A 209; A 204; A 47; A 64; A 220; A 43; A 146; A 240; A 235; A 160]]; L [L []; L [A 212; A 29; A 140; A 217; A 143; A 0; A 178; A 4; A 233; A 128; A 9; A 152; A 236; A 248; A 66; A 126]]]; L [A 97; A 98; A 100]].

Example w2_in_domain : dom16N w2_inp.
Proof.
  unfold dom16N. repeat match goal with |- _ /\ _ => split end.
  - vm_compute. reflexivity.
  - vm_compute. exact I.
  - vm_compute. reflexivity.
  - intros x E. vm_compute in E. inversion E. lia.
  - apply Nat.leb_le. vm_compute. reflexivity.
Qed.
Example clause2_fires_on_the_model :
  run16N w2_inp = L [L []; A 13; L []; L [A 0]; L []; L [A 1; L [A 4]; A 1; L [L [A 0; A 1]]]] /\
  mon16N w2_inp (run16N w2_inp) = [2].
Proof. vm_compute. split; reflexivity. Qed.

Lemma In_one {A} (x y : A) : In x [y] -> x = y.
Proof. intros [E|[]]; auto. Qed.

Lemma monN_data_clause2 inner ans m C d code ot :
  In 2 (monN_data (NW inner ans) m C d code ot) ->
  match ot with
  | TNode offs _ _ => exists c', returnedN ans (length offs) = Some c' /\ code <> c'
  | TLeaf _ => False
  end.
Proof.
  unfold monN_data. intros Hin.
  apply in_app_or in Hin as [Hin|Hin].
  { destruct (t_done1 _); [contradiction|]. apply In_one in Hin. discriminate. }
  destruct (is_discard m); [contradiction|].
  apply in_app_or in Hin as [Hin|Hin].
  - destruct ot as [n|offs dn kids]; [contradiction|].
    destruct (returnedN ans (length offs)) as [c'|]; [|contradiction]. exists c'. split; [reflexivity|].
    intros ->. rewrite Z.eqb_refl in Hin. cbn [negb] in Hin. rewrite andb_false_r in Hin. contradiction.
  - exfalso. repeat (apply in_app_or in Hin; destruct Hin as [Hin|Hin]);
      match type of Hin with In _ (if ?x then _ else _) => destruct x end; try contradiction;
      apply In_one in Hin; discriminate.
Qed.

Lemma all2_notin (l : list Z) : (forall c, In c l -> c = 2) -> ~ In 2 l -> l = [].
Proof.
  destruct l as [|k l]; intros Hall Hn; [reflexivity|]. exfalso. apply Hn. left. apply Hall. left. reflexivity.
Qed.

Lemma clause2_core H cfg fuel inner ans m C out :
  out = run_tree H cfg fuel (NW inner ans) m ->
  z_err out <> EFuel ->
  (is_to_reader m = true -> z_err out <> ECode (g_code cfg)) ->
  ~ In 2 (monN_data (NW inner ans) m C (z_data out) (C09FullMonitor.code_of (z_err out)) (codes_of (z_tree out))).
Proof.
  intros Eout Hnf Htr Hin. apply monN_data_clause2 in Hin.
  pose proof (run_tree_clause2 H cfg fuel inner ans m) as Hc. rewrite <- Eout in Hc. specialize (Hc Hnf).
  destruct (z_tree out) as [n|offs d kids]; cbn [codes_of] in Hin; [contradiction|].
  destruct Hin as (c' & Er & Hne). rewrite map_length in Er.
  destruct (Hc c' Er) as [E|(E1 & E2)]; [rewrite E in Hne; exact (Hne eq_refl)|exact (Htr E1 E2)].
Qed.

Definition dom16N2 (inp : sx) : Prop :=
  dom16N inp /\ z_err (out16N inp) <> EFuel /\
  (is_to_reader (n_meth (dec_case16N inp)) = true ->
   z_err (out16N inp) <> ECode (g_code (n_cfg (dec_case16N inp)))).

Theorem mon16N_silent_on_model inp : dom16N2 inp -> mon16N inp (run16N inp) = [].
Proof.
  intros (Hdom & Hnf & Htr). apply all2_notin; [exact (mon16N_on_model inp Hdom)|]. intros Hin.
  destruct Hdom as (Hok & Hroot & Hnfo & Hpos & Hdepth).
  rewrite (mon16N_decoded inp (dec_enc_odepth _ _ Hdepth)) in Hin.
  destruct (n_tree (dec_case16N inp)) as [b|inner ans] eqn:Et; [contradiction|].
  pose proof (out16N_eq inp) as Eo. rewrite Et in Eo.
  exact (clause2_core _ _ _ _ _ _ _ _ Eo Hnf Htr Hin).
Qed.
