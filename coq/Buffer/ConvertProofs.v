(** C09 — streams of the decorators (offset, normalizing) in terms of the
    stream they wrap, the stream of a scripted source, the vocabulary of the
    buffer-level theorems ([completed], [expected_slice], [partial_slice],
    [valid_script]; [bad_param] is in Run/R09.v), and those for
    NewCASBufferFromByteSlice. *)
From Coq Require Import List ZArith NArith Bool Lia.
From BBS Require Import Buffer.Source Buffer.Validate Buffer.Convert Buffer.StreamProofs Buffer.ValidateProofs.
Import ListNotations.
Open Scope N_scope.

Lemma csrc_drains evs k :
  exists s', drains csrc_read (mkCsrc evs k) (fst (content evs)) (snd (content evs)) s'.
Proof.
  induction evs as [|[bs|c|] r IH]; cbn [content].
  - cbn. eexists. eapply drains_end; [reflexivity|congruence].
  - destruct IH as (s' & IH). destruct (content r) as [c e]. cbn [fst snd] in *.
    exists s'. eapply drains_step; [reflexivity|exact IH].
  - cbn. eexists. eapply drains_end; [reflexivity|congruence].
  - cbn. eexists. eapply drains_end; [reflexivity|congruence].
Qed.

Section Decorators.
  Variable S : Type.
  Variable rd : S -> (bytes * err) * S.
  Variable cl : S -> S.

  Lemma discard_pulls fuel : forall off s prefix s',
    discard_from_chunk_reader rd fuel off s = ((prefix, ENone), s') ->
    exists bs, pulls rd s bs s' /\ prefix = dropN off bs /\ off <= lenN bs.
  Proof.
    induction fuel as [|f IH]; intros off s prefix s' Hd; cbn [discard_from_chunk_reader] in Hd;
      destruct (off =? 0) eqn:E0.
    - apply N.eqb_eq in E0. subst. inv Hd. exists []. split; [constructor|]. split; [reflexivity|]. rewrite lenN_nil. lia.
    - discriminate.
    - apply N.eqb_eq in E0. subst. inv Hd. exists []. split; [constructor|]. split; [reflexivity|]. rewrite lenN_nil. lia.
    - apply N.eqb_neq in E0. destruct (rd s) as [[c e] s1] eqn:Hr.
      destruct e; try discriminate.
      destruct (off <? lenN c) eqn:Hlt.
      + apply N.ltb_lt in Hlt. inv Hd. exists (c ++ []). split; [econstructor; [eassumption|constructor]|].
        rewrite app_nil_r. split; [reflexivity|lia].
      + apply N.ltb_ge in Hlt. destruct (IH _ _ _ _ Hd) as (bs & Hp & -> & Hle).
        exists (c ++ bs). split; [econstructor; eassumption|].
        rewrite dropN_app_ge by assumption. split; [reflexivity|]. rewrite lenN_app. lia.
  Qed.

  Lemma offset_drains_plain o out e o' :
    drains (offset_read rd) o out e o' -> o_prefix o = [] -> o_fixed o = ENone ->
    drains rd (o_u o) out e (o_u o').
  Proof.
    induction 1 as [o c e o1 Hr Hne|o c o1 bs e o2 Hr _ IH]; intros Hp Hf;
      unfold offset_read in Hr; rewrite Hf, Hp in Hr; cbn [is_nil] in Hr;
      destruct (rd (o_u o)) as [r u'] eqn:Hrd; inv Hr.
    - eapply drains_end; eassumption.
    - eapply drains_step; [eassumption|]. apply IH; reflexivity.
  Qed.

  Lemma offset_drains u prefix out e o' :
    drains (offset_read rd) (mkOst u prefix ENone) out e o' ->
    exists bs, out = prefix ++ bs /\ drains rd u bs e (o_u o').
  Proof.
    intros Hd. destruct prefix as [|x p].
    - exists out. split; [reflexivity|]. exact (offset_drains_plain _ _ _ _ Hd eq_refl eq_refl).
    - inversion Hd; subst; unfold offset_read in H; cbn in H; inv H.
      + congruence.
      + exists bs. split; [reflexivity|]. exact (offset_drains_plain _ _ _ _ H0 eq_refl eq_refl).
  Qed.

  Definition norm_step (n : nst S) (c : bytes) (e : err) (n' : nst S) : Prop :=
    (e = ENone -> exists bs, pulls rd (n_u n) bs (n_u n') /\ n_last n ++ bs = c ++ n_last n') /\
    (e <> ENone -> e <> EFuel ->
       n_last n = [] /\ c = [] /\ n_last n' = [] /\ drains rd (n_u n) [] e (n_u n')).

  Lemma norm_read_spec max fuel : forall n c e n',
    norm_read rd fuel max n = ((c, e), n') -> norm_step n c e n'.
  Proof.
    (* a non-empty remainder is handed out without reading, whatever the fuel *)
    assert (Hbuf : forall n c e n', is_nil (n_last n) = false ->
              (if max <? lenN (n_last n)
               then ((takeN max (n_last n), ENone), mkNst (n_u n) (dropN max (n_last n)))
               else ((n_last n, ENone), mkNst (n_u n) [])) = ((c, e), n') -> norm_step n c e n').
    { intros n c e n' En Hn. split; [intros _|destruct (max <? lenN (n_last n)); inv Hn; congruence].
      exists []. destruct (max <? lenN (n_last n)); inv Hn; cbn; (split; [constructor|]).
      - now rewrite app_nil_r, takeN_dropN.
      - reflexivity. }
    induction fuel as [|f IH]; intros n c e n' Hn; cbn [norm_read] in Hn;
      destruct (is_nil (n_last n)) eqn:En; cbn [negb] in Hn; try exact (Hbuf _ _ _ _ En Hn).
    - inv Hn. split; congruence.
    - apply is_nil_true in En. destruct (rd (n_u n)) as [[c0 e0] u'] eqn:Hr.
      destruct (err_none_dec e0) as [->|He0].
      + apply IH in Hn. cbn [n_u n_last] in Hn. destruct Hn as [Hok Hko]. split.
        * intros He. destruct (Hok He) as (bs & Hp & Hb). exists (c0 ++ bs). split; [econstructor; eassumption|].
          rewrite En. cbn. exact Hb.
        * intros Hne Hnf. destruct (Hko Hne Hnf) as (Hc0 & -> & Hl & Hd). cbn in Hc0. subst c0. rsplit; auto.
          change (@nil N) with ([] ++ @nil N). eapply drains_step; eassumption.
      + assert (Hn' : (([], e0), mkNst u' []) = ((c, e), n')) by (destruct e0; [congruence|exact Hn..]).
        inv Hn'. split; [congruence|]. intros _ _. cbn. rsplit; auto. eapply drains_end; eassumption.
  Qed.

  Lemma norm_drains max fuel n out e n' :
    drains (norm_read rd fuel max) n out e n' -> e <> EFuel ->
    exists bs, n_last n ++ bs = out /\ drains rd (n_u n) bs e (n_u n').
  Proof.
    induction 1 as [n c e n1 Hr Hne|n c n1 bs e n2 Hr _ IH]; intros Hf.
    - destruct (proj2 (norm_read_spec _ _ _ _ _ _ Hr) Hne Hf) as (-> & -> & _ & Hd). exists []. auto.
    - destruct (proj1 (norm_read_spec _ _ _ _ _ _ Hr) eq_refl) as (bs0 & Hp & Hb).
      destruct (IH Hf) as (bs1 & <- & Hd).
      exists (bs0 ++ bs1). split; [rewrite !app_assoc, Hb; reflexivity|].
      eapply pulls_drains; eassumption.
  Qed.
End Decorators.

Section Decorators2.
  Variable S : Type.
  Variable rd : S -> (bytes * err) * S.

  Lemma discard_fails fuel : forall off s c e s',
    discard_from_chunk_reader rd fuel off s = ((c, e), s') -> e <> ENone -> e <> EFuel ->
    exists bs, drains rd s bs e s' /\ lenN bs < off.
  Proof.
    induction fuel as [|f IH]; intros off s c e s' Hd Hne Hnf; cbn [discard_from_chunk_reader] in Hd;
      destruct (off =? 0) eqn:E0; try (inv Hd; congruence).
    apply N.eqb_neq in E0. destruct (rd s) as [[c0 e0] s1] eqn:Hr.
    destruct e0; try (inv Hd; exists []; split; [eapply drains_end; [eassumption|congruence]|rewrite lenN_nil; lia]).
    destruct (off <? lenN c0) eqn:Hlt; [inv Hd; congruence|]. apply N.ltb_ge in Hlt.
    destruct (IH _ _ _ _ _ Hd Hne Hnf) as (bs & Hds & Hl).
    exists (c0 ++ bs). split; [eapply drains_step; eassumption|]. rewrite lenN_app. lia.
  Qed.

  Lemma offset_read_fixed o : o_fixed o <> ENone -> offset_read rd o = (([], o_fixed o), o).
  Proof. intros Hf. unfold offset_read. destruct (o_fixed o); [congruence|reflexivity..]. Qed.

  Lemma offset_fixed_drains o bs e o' :
    drains (offset_read rd) o bs e o' -> o_fixed o <> ENone -> e = o_fixed o /\ bs = [].
  Proof. intros Hd Hf. inversion Hd; subst; rewrite (offset_read_fixed _ Hf) in H; inv H; auto; congruence. Qed.

  Lemma offset_init_drains cl fuel off s bs e o' :
    drains (offset_read rd) (offset_init rd cl fuel off s) bs e o' -> (0 <= off)%Z -> e <> EFuel ->
    exists all s', drains rd s all e s' /\ bs = dropN (Z.to_N off) all.
  Proof.
    unfold offset_init. intros Hdo Hoff Hnf.
    destruct (off <? 0)%Z eqn:Hneg; [apply Z.ltb_lt in Hneg; lia|].
    destruct (discard_from_chunk_reader rd fuel (Z.to_N off) s) as [[prefix e0] s1] eqn:Hdis.
    destruct (err_none_dec e0) as [->|Hne].
    2: { rewrite (err_match_failed _ _ _ Hne) in Hdo.
         destruct (offset_fixed_drains _ _ _ _ Hdo) as (Ee & ->); [exact Hne|]. cbn in Ee. subst e0.
         destruct (discard_fails _ _ _ _ _ _ Hdis Hne Hnf) as (bs0 & Hd0 & Hl0).
         exists bs0, s1. split; [exact Hd0|]. symmetry. apply dropN_all. lia. }
    destruct (discard_pulls _ _ _ _ _ _ _ Hdis) as (bs0 & Hp0 & -> & Hle).
    destruct (offset_drains _ _ _ _ _ _ _ Hdo) as (bs2 & -> & Hd2).
    exists (bs0 ++ bs2), (o_u o'). split; [exact (pulls_drains _ _ _ _ _ _ _ _ Hp0 Hd2)|].
    symmetry. apply dropN_app. exact Hle.
  Qed.
End Decorators2.

Definition completed (m : meth) (e : err) : bool :=
  match m with
  | MReadAt _ _ => is_none e || err_eqb e EEof
  | MToChunkReader _ _ _ | MToReader _ _ => err_eqb e EEof
  | _ => is_none e
  end.
Definition expected_slice (m : meth) (c : bytes) : bytes :=
  match m with
  | MReadAt plen off => takeN plen (dropN (Z.to_N off) c)
  | MToChunkReader off _ _ => dropN (Z.to_N off) c
  | MDiscard => []
  | _ => c
  end.
Definition partial_slice (m : meth) (c : bytes) : bytes :=
  match m with
  | MIntoWriter | MToReader _ _ => c
  | MToChunkReader off _ _ => dropN (Z.to_N off) c
  | _ => []
  end.

Lemma completed_not_code m x : completed m (ECode x) = false.
Proof. destruct m; reflexivity. Qed.

Section BufferTheorems.
  Variable H : bytes -> bytes.
  Variable cfg : vcfg.
  Variable fuel : nat.

  (** the script's content ends with io.EOF and has the digest's size and hash *)
  Definition valid_script (evs : list ev) : Prop :=
    snd (content evs) = EEof /\ lenN (fst (content evs)) = g_size cfg /\ g_hash cfg = H (fst (content evs)).

  Lemma valid_stream_script evs k :
    valid_stream H cfg csrc_read (mkCsrc evs k) <-> valid_script evs.
  Proof.
    destruct (csrc_drains evs k) as (s' & Hd). split.
    - intros (bs & s2 & Hd2 & Hl & Hh).
      destruct (drains_det _ _ _ _ _ _ _ _ _ Hd Hd2) as (E1 & E2 & _).
      unfold valid_script. rewrite E1, E2. auto.
    - intros (He & Hl & Hh). rewrite He in Hd. exists (fst (content evs)), s'. auto.
  Qed.

  Lemma cv_complete evs out st' :
    drains (cv_read H cfg fuel) (cv_init cfg evs) out EEof st' ->
    valid_script evs /\ out = fst (content evs).
  Proof.
    intros Hd. destruct (vcr_complete_implies_valid _ _ _ _ _ _ _ _ Hd) as ((u & Hdu) & Hl & Hh).
    destruct (csrc_drains evs 0) as (s' & Hds).
    destruct (drains_det _ _ _ _ _ _ _ _ _ Hds Hdu) as (E1 & E2 & _).
    unfold valid_script. rewrite E1, E2. auto.
  Qed.
End BufferTheorems.

Lemma bs_read_drains max d out e d' :
  drains (bs_read max) d out e d' -> out = d /\ e = EEof.
Proof.
  induction 1 as [d c e d1 Hr Hne|d c d1 bs e d2 Hr _ IH]; unfold bs_read in Hr.
  - destruct (is_nil d) eqn:En; [apply is_nil_true in En; inv Hr; auto|].
    destruct (lenN d <=? max); inv Hr; congruence.
  - destruct (is_nil d) eqn:En; [inv Hr|].
    destruct IH as (-> & ->). destruct (lenN d <=? max); inv Hr.
    + now rewrite app_nil_r.
    + now rewrite takeN_dropN.
Qed.

Lemma bb_rconsume fuel : forall caps lastcap out d out' e d',
  rconsume bb_read fuel caps lastcap out d = ((out', e), d') -> e <> EFuel -> out' = out ++ d /\ e = EEof.
Proof.
  induction fuel as [|f IH]; intros caps lastcap out d out' e d' Hr Hne; cbn [rconsume] in Hr.
  - inv Hr. congruence.
  - unfold bb_read in Hr at 1. destruct (is_nil d) eqn:En.
    + apply is_nil_true in En. subst d.
      destruct (hd lastcap caps =? 0).
      * destruct (IH _ _ _ _ _ _ _ Hr Hne) as [-> ->]. split; [now rewrite app_nil_r|reflexivity].
      * inv Hr. split; reflexivity.
    + destruct (IH _ _ _ _ _ _ _ Hr Hne) as [-> ->]. split; [now rewrite <- app_assoc, takeN_dropN|reflexivity].
Qed.

Section ByteSliceTheorems.
  Variable H : bytes -> bytes.
  Variable cfg : vcfg.
  Variable fuel : nat.

  Lemma error_buffer_never_completes c cbs closed m :
    m <> MDiscard -> completed m (o_err (error_buffer (ECode c) cbs closed m)) = false.
  Proof. destruct m; cbn; congruence. Qed.

  Lemma byte_slice_buffer_expected data cbs closed m :
    completed m (o_err (byte_slice_buffer fuel data cbs closed m)) = true ->
    o_data (byte_slice_buffer fuel data cbs closed m) = expected_slice m data.
  Proof.
    destruct m; cbn [byte_slice_buffer expected_slice completed].
    - destruct (max <? lenN data); cbn; [discriminate|reflexivity].
    - reflexivity.
    - destruct (off <? 0)%Z; [cbn; discriminate|].
      destruct (lenN data <? Z.to_N off) eqn:E.
      + apply N.ltb_lt in E. cbn. intros _. rewrite dropN_all by lia. destruct plen; reflexivity.
      + destruct (lenN _ <? plen); reflexivity.
    - destruct (valid_offset (lenN data) off); [|cbn; discriminate].
      destruct (drain _ fuel [] _) as [[out e] s] eqn:Hd. destruct (extra_reads _ extra s) as [ex s2].
      cbn. destruct e; try discriminate. intros _.
      destruct (drain_drains _ _ _ _ _ _ _ _ Hd) as (bs & -> & Hds); [congruence|].
      now destruct (bs_read_drains _ _ _ _ _ Hds) as (-> & _).
    - destruct (rconsume _ fuel caps _ [] data) as [[out e] s] eqn:Hr. destruct (rextra _ extra _ s) as [ex s2].
      cbn. destruct e; try discriminate. intros _.
      exact (proj1 (bb_rconsume _ _ _ _ _ _ _ _ Hr ltac:(congruence))).
    - destruct (max <? lenN data); cbn; [discriminate|reflexivity].
    - reflexivity.
  Qed.

  Theorem byte_slice_complete_implies_valid data m :
    m <> MDiscard ->
    completed m (o_err (cas_byte_slice H cfg fuel data m)) = true ->
    lenN data = g_size cfg /\ g_hash cfg = H data /\
    o_data (cas_byte_slice H cfg fuel data m) = expected_slice m data.
  Proof.
    intros Hm. unfold cas_byte_slice.
    destruct (g_size cfg =? lenN data) eqn:Es; cbn [negb].
    - destruct (bytes_eqb (g_hash cfg) (H data)) eqn:Eh; cbn [negb].
      + intros Hc. apply N.eqb_eq in Es. apply bytes_eqb_eq in Eh. rsplit; auto.
        exact (byte_slice_buffer_expected _ _ _ _ Hc).
      + rewrite error_buffer_never_completes by assumption. discriminate.
    - rewrite error_buffer_never_completes by assumption. discriminate.
  Qed.

  (** eager validation: the callback verdict is the validity of the slice *)
  Theorem byte_slice_callback data m :
    o_cbs (cas_byte_slice H cfg fuel data m) =
      [(g_size cfg =? lenN data) && bytes_eqb (g_hash cfg) (H data)].
  Proof.
    unfold cas_byte_slice.
    destruct (g_size cfg =? lenN data); cbn [negb andb];
      [destruct (bytes_eqb (g_hash cfg) (H data)); cbn [negb]|].
    - unfold byte_slice_buffer. destruct m; cbn;
        repeat match goal with |- context [if ?c then _ else _] => destruct c; cbn end;
        repeat match goal with |- context [let '(_, _) := ?c in _] => destruct c as [[? ?] ?]; cbn end;
        try reflexivity.
      all: repeat match goal with |- context [let '(_, _) := ?c in _] => destruct c; cbn end; reflexivity.
    - destruct m; reflexivity.
    - destruct m; reflexivity.
  Qed.
End ByteSliceTheorems.
