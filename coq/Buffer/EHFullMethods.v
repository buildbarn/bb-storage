(** C16 — no duplicated and no skipped range for every consumption method:
    when the buffer handed to WithErrorHandler and every replacement buffer
    the handler supplies carry the same object [C], a call / stream that
    completes has handed the consumer exactly the expected slice of [C] —
    ToByteSlice, IntoWriter, ReadAt (any offset and length), ToChunkReader
    (any offset and chunk size), ToReader (any read sizes), CloneCopy — for
    every buffer kind, every position of the failures, any fuel. *)
From Coq Require Import List ZArith NArith Bool Lia.
From BBS Require Import Buffer.Source Buffer.Validate Buffer.Convert Buffer.ErrHandler
  Buffer.StreamProofs Buffer.ValidateProofs Buffer.ValidateReaderProofs Buffer.ConvertProofs
  Buffer.ReaderBufferProofs Buffer.ConvertProofs2 Buffer.ErrHandlerProofs Buffer.EHFullCarry
  Buffer.EHFullReader.
Import ListNotations.
Open Scope N_scope.

Lemma completed_code m c : completed m (ECode c) = false.
Proof. destruct m; reflexivity. Qed.
Lemma completed_fuel m : completed m EFuel = false.
Proof. destruct m; reflexivity. Qed.
Lemma completed_unexp m : completed m EUnexp = false.
Proof. destruct m; reflexivity. Qed.

Lemma ehr_no_unexp fuel cap r c e r' : ehr_read fuel cap r = ((c, e), r') -> e <> EUnexp.
Proof.
  unfold ehr_read. destruct (urd_read fuel cap (er_cur r)) as [[data t] cur'].
  destruct (on_error (er_h r) t) as [a h']. destruct t; try (intros Hr; inv Hr; congruence);
    destruct a; intros Hr; inv Hr; congruence.
Qed.

(** newOffsetChunkReader over any chunk reader: a stream that reaches io.EOF
    is the stream underneath, read from its start, minus the first [off] bytes *)
Section OffsetGeneric.
  Variable S : Type.
  Variable rd : S -> (bytes * err) * S.
  Variable cl : S -> S.
  Lemma offset_complete_generic fuel off s0 bs o' :
    drains (offset_read rd) (offset_init rd cl fuel off s0) bs EEof o' ->
    (0 <= off)%Z /\ exists full u, drains rd s0 full EEof u /\ bs = dropN (Z.to_N off) full.
  Proof.
    intros Hdo. assert (Hpos : (0 <= off)%Z).
    { apply Z.ltb_ge. destruct (off <? 0)%Z eqn:Hneg; [|reflexivity]. unfold offset_init in Hdo. rewrite Hneg in Hdo.
      destruct (offset_fixed_drains _ _ _ _ _ _ Hdo) as (Ee & _); [cbn; congruence|cbn in Ee; congruence]. }
    split; [exact Hpos|]. exact (offset_init_drains _ _ _ _ _ _ _ _ _ Hdo Hpos ltac:(congruence)).
  Qed.
End OffsetGeneric.

Section Methods.
  Variable H : bytes -> bytes.
  Variable cfg : vcfg.
  Variable fuel : nat.
  Variable C : bytes.

  Lemma plain_complete b m :
    carries_full C b -> m <> MDiscard ->
    completed m (o_err (plain H cfg fuel b m)) = true ->
    o_data (plain H cfg fuel b m) = expected_slice m C.
  Proof.
    intros Hc Hm Hcomp. destruct b as [evs|evs a|d|x]; cbn [plain carries_full] in *.
    - destruct (chunk_reader_complete_implies_valid H cfg fuel evs m _ Hm eq_refl Hcomp) as ((He & _) & ->).
      destruct Hc as (rest & -> & Hrest). rewrite (Hrest He), app_nil_r. reflexivity.
    - destruct (ReaderBufferProofs.reader_complete_implies_valid H cfg fuel evs a m _ Hm eq_refl Hcomp)
        as ((He & _) & ->).
      assert (Hcc : ccar C evs) by (destruct a; [apply rcar_ccar|]; exact Hc).
      destruct Hcc as (rest & -> & Hrest). rewrite (Hrest He), app_nil_r. reflexivity.
    - subst d. apply byte_slice_buffer_expected. exact Hcomp.
    - rewrite error_buffer_never_completes in Hcomp by exact Hm. discriminate.
  Qed.

  (** tryRepeatedly: ToByteSlice, ReadAt (and CloneCopy through ToByteSlice) *)
  Lemma try_repeatedly_no_dup : forall n m b h cbs d e cbs' h',
    try_repeatedly H cfg fuel n m b h cbs = (d, e, cbs', h') -> m <> MDiscard ->
    carries_full C b -> Forall (ans_carries C) (h_answers h) ->
    completed m e = true -> d = expected_slice m C.
  Proof.
    induction n as [|n IH]; intros m b h cbs d e cbs' h' Ht Hm Hc Hall Hcomp;
      rewrite try_repeatedly_eq in Ht; cbv zeta in Ht;
      (destruct (op_done (o_err (plain H cfg fuel b m))); [inv Ht; apply plain_complete; auto|]);
      destruct (on_error h (o_err (plain H cfg fuel b m))) as [[b'|c'] h1] eqn:Ho.
    - inv Ht. rewrite completed_fuel in Hcomp. discriminate.
    - inv Ht. rewrite completed_code in Hcomp. discriminate.
    - rewrite (on_error_replace _ _ _ _ Ho) in Hall. inversion Hall; subst. eapply IH; eauto.
    - inv Ht. rewrite completed_code in Hcomp. discriminate.
  Qed.

  Lemma ehv_complete_is_object max b h out st' :
    carries_full C b -> Forall (ans_carries C) (h_answers h) ->
    drains (ehv_read H cfg fuel max) (vinit cfg (ehc_init fuel b h)) out EEof st' -> out = C.
  Proof.
    intros Hc Hall Hd. destruct (eh_validated_stitched _ _ _ _ _ _ _ _ Hd) as (_ & _ & offs & Hs).
    rewrite <- (dropN_0 C).
    eapply stitched_no_dup_no_skip_full; [exact Hs|reflexivity|reflexivity|exact Hc|exact Hall|lia].
  Qed.

  (** the validated stream above the error-handling reader: still validated,
      and it is the stitched stream *)
  Theorem ehr_validated_stitched b h out st' :
    rdrains (ehrv_read H cfg fuel) (vinit cfg (ehr_init fuel b h)) out EEof st' ->
    lenN out = g_size cfg /\ g_hash cfg = H out /\
    exists offs, rstitched fuel (urd_open fuel b 0) 0 (h_answers h) out EEof offs.
  Proof.
    intros Hd. unfold ehrv_read in Hd.
    assert (HP : forall cap s c e s', True -> ehr_read fuel cap s = ((c, e), s') -> e <> EUnexp /\ (e = ENone -> True))
      by (intros cap s c e s' _ Hr; split; [exact (ehr_no_unexp _ _ _ _ _ _ Hr)|auto]).
    destruct (vr_complete_under_init H cfg _ (ehr_read fuel) fuel (fun _ => True) HP _ _ _ Logic.I Hd) as (Hu & Hl & Hh).
    destruct (ehr_stitched _ _ _ _ _ Hu) as (offs & Hs & _). cbn in Hs. eauto.
  Qed.

  Lemma ehrv_complete_is_object b h out st' :
    carries_full C b -> Forall (ans_carries C) (h_answers h) ->
    rdrains (ehrv_read H cfg fuel) (vinit cfg (ehr_init fuel b h)) out EEof st' -> out = C.
  Proof.
    intros Hc Hall Hd. destruct (ehr_validated_stitched _ _ _ _ Hd) as (_ & _ & offs & Hs).
    rewrite <- (dropN_0 C).
    eapply rstitched_no_dup_no_skip; [exact Hs|reflexivity|reflexivity|exact Hc|exact Hall|lia].
  Qed.

  Theorem eh_method_no_dup b h m :
    carries_full C b -> Forall (ans_carries C) (h_answers h) -> m <> MDiscard ->
    completed m (x_err (eh_method H cfg fuel b h m)) = true ->
    x_data (eh_method H cfg fuel b h m) = expected_slice m C.
  Proof.
    intros Hc Hall Hm. destruct m; try congruence; cbn [eh_method].
    - (* ToByteSlice *)
      destruct (try_repeatedly _ _ _ _ _ _ _ _) as [[[d e] cbs] h'] eqn:Ht. cbn [x_err x_data]. intros Hcomp.
      eapply try_repeatedly_no_dup; eauto.
    - (* IntoWriter *)
      unfold into_writer_cr. destruct (drain _ fuel [] _) as [[out e] st] eqn:Hd. cbn [x_err x_data expected_slice].
      intros Hcomp.
      destruct (drain_drains _ _ _ _ _ _ _ _ Hd) as (bs & -> & Hds); [intros ->; discriminate Hcomp|]. cbn [app].
      destruct e; try discriminate Hcomp; [exfalso; exact (drains_not_none _ _ _ _ _ _ Hds eq_refl)|].
      eapply ehv_complete_is_object; eauto.
    - (* ReadAt *)
      destruct (try_repeatedly _ _ _ _ _ _ _ _) as [[[d e] cbs] h'] eqn:Ht. cbn [x_err x_data]. intros Hcomp.
      eapply try_repeatedly_no_dup; eauto.
    - (* ToChunkReader *)
      destruct (valid_offset (g_size cfg) off) eqn:Hv; [|cbn; discriminate].
      destruct (drain _ fuel [] _) as [[out e] o] eqn:Hd.
      destruct (extra_reads _ extra o) as [ex o2]. cbn [x_err x_data expected_slice completed].
      intros Hcomp. destruct e; try discriminate.
      destruct (drain_drains _ _ _ _ _ _ _ _ Hd) as (bs & -> & Hds); [congruence|]. cbn [app].
      destruct (offset_complete_generic _ _ _ _ _ _ _ _ Hds) as (_ & full & u & Hfull & ->).
      rewrite (ehv_complete_is_object _ _ _ _ _ Hc Hall Hfull). reflexivity.
    - (* ToReader *)
      destruct (rconsume _ fuel caps _ [] _) as [[out e] st] eqn:Hr.
      destruct (rextra _ extra _ st) as [ex st2]. cbn [x_err x_data expected_slice completed].
      intros Hcomp. destruct e; try discriminate.
      destruct (rconsume_rdrains _ _ _ _ _ _ _ _ _ _ Hr) as (bs & -> & Hds); [congruence|]. cbn [app].
      eapply ehrv_complete_is_object; eauto.
    - (* CloneCopy *)
      destruct (try_repeatedly _ _ _ _ _ _ _ _) as [[[d e] cbs] h'] eqn:Ht.
      destruct e; cbn [x_err x_data completed is_none expected_slice]; try discriminate. intros _.
      change C with (expected_slice (MToByteSlice max) C).
      eapply try_repeatedly_no_dup; eauto. congruence.
  Qed.
End Methods.
