(** C16N — clause 2 on the model, every method: if the last answer of the
    outermost handler of a wrapped tree was an error [x], the consumer's result
    is [ECode x] - for ToReader: or the validator's own error code (data handed
    over together with the handler's error is checked against the digest's size
    first).  Hypothesis: the run did not end in the out-of-fuel marker. *)
From Coq Require Import List ZArith NArith Bool Lia.
From BBS Require Import Buffer.Source Buffer.Validate Buffer.Convert Buffer.EHNest Buffer.EHNestStep
  Buffer.ValidateReaderProofs Buffer.EHNestMoreRet Run.R16N.
Import ListNotations.
Open Scope N_scope.

Lemma len_snoc {A} (l : list A) x : length (l ++ [x]) = Datatypes.S (length l).
Proof. rewrite app_length. cbn. apply Nat.add_1_r. Qed.

Section Root.
  Variable ans : nanss.       (* the script of the outermost handler *)

  Definition retN (r : ncr) : option Z :=
    match r with CE _ _ h => returnedN ans (length (hn_off h)) | CL _ => None end.
  Definition P0N (r : ncr) : Prop :=
    match r with CE _ _ h => Al ans (length (hn_off h)) (hn_ans h) | CL _ => False end.
  Lemma P0N_ret r : P0N r -> retN r = None.
  Proof. destruct r as [u|cur off h]; [contradiction|]. apply Al_ret_none. Qed.

  Lemma nstep_told ifuel max f r x r' : nstep ifuel max f r x r' -> P0N r -> told retN P0N (snd x) r'.
  Proof.
    induction 1 as [r|f u x u' Hu|f cur off h chunk cur' _ _|f cur off h chunk cur' _ _
                    |f cur off h chunk e cur' c rest _ _ He Hs|f cur off h chunk e cur' t rest x r' _ _ He Ha _ IH];
      intros Hp; cbn [snd]; try exact Hp.
    - contradiction.
    - cbn [told retN hn_offered hn_off]. rewrite len_snoc. exact (Al_ret_said _ _ _ _ _ Hp Hs).
    - apply IH. cbn [P0N hn_retire hn_offered hn_off hn_ans] in *. rewrite len_snoc. rewrite Ha in Hp.
      exact (Al_snoc _ _ _ _ Hp).
  Qed.

  Definition retR (r : nrd) : option Z :=
    match r with RE _ _ h => returnedN ans (length (hn_off h)) | RL _ => None end.
  Definition P0R (r : nrd) : Prop :=
    match r with RE _ _ h => Al ans (length (hn_off h)) (hn_ans h) | RL _ => False end.
  Lemma P0R_ret r : P0R r -> retR r = None.
  Proof. destruct r as [u|cur off h]; [contradiction|]. apply Al_ret_none. Qed.

  Lemma rstep_told ifuel cap r x r' : rstep ifuel cap r x r' -> P0R r -> told retR P0R (snd x) r'.
  Proof.
    destruct 1 as [u x u' Hu|cur off h data e cur' _ Hq|cur off h data e cur' c rest _ He Hs
                   |cur off h data e cur' t rest _ He Ha]; intros Hp; cbn [P0R snd] in *.
    - contradiction.
    - destruct Hq as [->| ->]; exact Hp.
    - cbn [told retR hn_offered hn_off]. rewrite len_snoc. exact (Al_ret_said _ _ _ _ _ Hp Hs).
    - cbn [told P0R hn_retire hn_offered hn_off hn_ans]. rewrite len_snoc. rewrite Ha in Hp. exact (Al_snoc _ _ _ _ Hp).
  Qed.
End Root.

Section Methods.
  Variable H : bytes -> bytes.
  Variable cfg : vcfg.
  Variable fuel : nat.

  Definition root_ret (ans0 : nanss) (w : wres) : Prop :=
    match snd w with
    | ONode offs _ _ => forall x, returnedN ans0 (length offs) = Some x -> snd (fst (fst w)) = ECode x
    | OLeaf _ => True
    end.

  Lemma try_ans_ret m ans0 rem r offers dead cbs :
    Al ans0 (length offers) rem -> root_ret ans0 (try_ans H cfg fuel m rem r offers dead cbs).
  Proof.
    pose (Pt := fun rem (_ : wres) (offers : list err) (_ : list otree) (_ : list bool) w' =>
                  Al ans0 (length offers) rem -> root_ret ans0 w').
    destruct (whole_try_ind H cfg fuel m (fun _ _ => True) Pt) as (_ & B); unfold Pt, root_ret; cbn [fst snd]; auto.
    - intros ans d e cb o offs dead0 cbs0 _ Ha x Hx. rewrite (Al_ret_none _ _ _ Ha) in Hx. discriminate.
    - intros ans c rest d e cb o offs dead0 cbs0 _ Hs Ha x Hx.
      rewrite len_snoc, (Al_ret_said _ _ _ _ _ Ha Hs) in Hx. congruence.
    - intros t rest d e cb o offs dead0 cbs0 w w' _ _ Hrest Ha. apply Hrest. rewrite len_snoc. exact (Al_snoc _ _ _ _ Ha).
    - apply B.
  Qed.

  Lemma whole_ret m inner ans (Q : Prop) :
    match snd (whole H cfg fuel m (NW inner ans)) with
    | ONode offs _ _ =>
        forall x, returnedN ans (length offs) = Some x ->
          snd (fst (fst (whole H cfg fuel m (NW inner ans)))) = ECode x \/ Q
    | OLeaf _ => True
    end.
  Proof.
    pose proof (try_ans_ret m ans ans (whole H cfg fuel m inner) [] [] [] (Al_nil ans)) as Hr.
    change (root_ret ans (whole H cfg fuel m (NW inner ans))) in Hr. unfold root_ret in Hr.
    destruct (snd (whole H cfg fuel m (NW inner ans))); [exact I|]. intros x Hx. left. auto.
  Qed.

  Lemma discard_root inner ans (Q : Z -> Prop) :
    match discard_tree H cfg fuel (NW inner ans) with
    | ONode offs _ _ => forall x, returnedN ans (length offs) = Some x -> Q x
    | OLeaf _ => True
    end.
  Proof. cbn. intros x Hx. discriminate. Qed.

  Definition is_to_reader (m : meth) : bool := match m with MToReader _ _ => true | _ => false end.

  Lemma nclose_ret ans r : retN ans (nclose r) = retN ans r.
  Proof. destruct r; reflexivity. Qed.
  Lemma nclose_P0 ans r : P0N ans r -> P0N ans (nclose r).
  Proof. destruct r; cbn; auto. Qed.

  Lemma nobs_ret ans r : match nobs r with
                         | ONode offs _ _ => returnedN ans (length offs) = retN ans r
                         | OLeaf _ => True
                         end.
  Proof. destruct r as [u|cur off h]; cbn; [exact I|reflexivity]. Qed.
  Lemma nrobs_ret ans r : match nrobs r with
                          | ONode offs _ _ => returnedN ans (length offs) = retR ans r
                          | OLeaf _ => True
                          end.
  Proof. destruct r as [u|cur off h]; cbn; [exact I|reflexivity]. Qed.
  Lemma nrclose_ret ans r : retR ans (nrclose r) = retR ans r.
  Proof. destruct r; reflexivity. Qed.

  Notation JC ans := (Jvc (retN ans) (P0N ans)).

  Lemma nv_read_tracked ans max : tlaw vstuck (nv_read H cfg fuel max) (JC ans).
  Proof.
    unfold nv_read. apply vcr_read_tracked; [apply P0N_ret|].
    intros s c e s' Hp Hr. exact (nstep_told _ _ _ _ _ _ _ (nread_nstep _ _ _ _ _ _ Hr) Hp).
  Qed.
  Lemma nv_close_J ans st : JC ans st -> JC ans (nv_close st).
  Proof.
    intros (A & B). unfold nv_close, Jvc. cbn [v_set_u v_u v_err]. split.
    - intros E. apply nclose_P0. auto.
    - intros x. rewrite nclose_ret. apply B.
  Qed.
  Lemma nv_close_stuck e (st : nv) : vstuck e st -> vstuck e (nv_close st).
  Proof. unfold vstuck, nv_close. cbn. auto. Qed.

  (** the final step: a stuck validator state whose record says the root returned [x] *)
  Lemma final_chunk ans (st : nv) e offs dn kids x :
    JC ans st -> vstuck e st -> nobs (v_u st) = ONode offs dn kids ->
    returnedN ans (length offs) = Some x -> e = ECode x.
  Proof.
    intros (_ & B) (V & _) En Hx. pose proof (nobs_ret ans (v_u st)) as Hn. rewrite En in Hn.
    rewrite Hn in Hx. rewrite <- V. exact (B x Hx).
  Qed.

  Section Clause2.
    Variables (inner : nbuf) (ans : nanss).
    Variable Ex : nrv -> Prop.
    Variable big : Prop.
    Hypothesis ex_long : forall st bs ot u',
      Ex st -> rran _ (nrread fuel) (v_u st) bs ot u' -> v_rem st < lenN bs -> big.
    Hypothesis ex_more : forall st c st',
      Ex st -> rran _ (nrread fuel) (v_u st) c None (v_u st') -> v_rem st' + lenN c = v_rem st -> Ex st'.
    Hypothesis ex_init : Ex (vinit cfg (nropen fuel (NW inner ans) 0)).

    Theorem run_tree_clause2_ex m :
      z_err (run_tree H cfg fuel (NW inner ans) m) <> EFuel ->
      match z_tree (run_tree H cfg fuel (NW inner ans) m) with
      | ONode offs _ _ =>
          forall x, returnedN ans (length offs) = Some x ->
            z_err (run_tree H cfg fuel (NW inner ans) m) = ECode x \/
            (is_to_reader m = true /\ z_err (run_tree H cfg fuel (NW inner ans) m) = ECode (g_code cfg) /\ big)
      | OLeaf _ => True
      end.
    Proof.
      remember (NW inner ans) as t eqn:Et.
      assert (Hinit : JC ans (vinit cfg (nopen fuel t 0))).
      { subst t. split; cbn; [intros _; constructor|intros x Hx; discriminate]. }
      destruct m as [max| |plen off|off max extra|caps extra|max|]; rewrite Et; cbn [run_tree is_to_reader]; rewrite <- Et.
      - (* ToByteSlice *)
        rewrite whole_out. cbn [z_err z_tree]. intros _. subst t. apply whole_ret.
      - (* IntoWriter *)
        unfold into_writer_cr.
        destruct (drain (nv_read H cfg fuel 65536) fuel [] (vinit cfg (nopen fuel t 0))) as [[out e] st] eqn:Hd.
        cbn [z_err z_tree]. intros Hnf.
        destruct (drain_tracked _ _ _ (nv_read_tracked ans 65536) _ _ _ _ _ _ Hinit Hd) as (A & [->|B]);
          [exfalso; apply Hnf; reflexivity|].
        destruct (nobs (v_u (nv_close st))) as [|offs dn kids] eqn:En; [exact I|]. intros x Hx. left.
        rewrite (final_chunk ans _ e _ _ _ _ (nv_close_J _ _ A) (nv_close_stuck _ _ B) En Hx). reflexivity.
      - (* ReadAt *)
        rewrite whole_out. cbn [z_err z_tree]. intros _. subst t. apply whole_ret.
      - (* ToChunkReader *)
        destruct (valid_offset (g_size cfg) off) eqn:Hv.
        2:{ cbn [z_err z_tree]. intros _. subst t. apply discard_root. }
        pose proof (valid_offset_pos _ _ Hv) as Hoff.
        pose proof (nv_read_tracked ans max) as T.
        pose proof (offset_init_tracked vstuck _ nv_close _ T (nv_close_J ans) nv_close_stuck fuel off _ Hoff Hinit) as J0.
        set (o0 := offset_init (nv_read H cfg fuel max) nv_close fuel off (vinit cfg (nopen fuel t 0))) in *.
        assert (TO : tlaw (stuck_o vstuck) (offset_read (nv_read H cfg fuel max)) (J_o vstuck (JC ans))).
        { intros o c e o' Hj Hr. eapply offset_read_tracked; eauto. }
        destruct (drain (offset_read (nv_read H cfg fuel max)) fuel [] o0) as [[out e] o1] eqn:Hd.
        destruct (extra_reads (offset_read (nv_read H cfg fuel max)) extra o1) as [ex o2] eqn:He.
        cbn [z_err z_tree]. intros Hnf.
        destruct (drain_tracked _ _ _ TO _ _ _ _ _ _ J0 Hd) as (A & [->|B]); [exfalso; apply Hnf; reflexivity|].
        pose proof (extra_reads_stuck _ _ _ TO _ _ _ _ _ A B He) as ->.
        destruct (offset_close_tracked vstuck nv_close (JC ans) (nv_close_J ans) nv_close_stuck _ _ A B Hnf) as (A2 & B2).
        destruct (nobs (v_u (o_u (offset_close nv_close o1)))) as [|offs dn kids] eqn:En; [exact I|].
        intros x Hx. left. exact (final_chunk ans _ e _ _ _ _ A2 B2 En Hx).
      - (* ToReader *)
        subst t. set (J := Jvr cfg (retR ans) (P0R ans) Ex big).
        assert (TR : rtlaw vstuck (nrv_read H cfg fuel) J).
        { unfold nrv_read. apply vr_read_tracked; [apply P0R_ret| |exact ex_long|exact ex_more].
          intros cap s c e s' Hp Hr. exact (rstep_told _ _ _ _ _ _ (nrread_rstep _ _ _ _ _ Hr) Hp). }
        assert (Hinitr : J (vinit cfg (nropen fuel (NW inner ans) 0))).
        { split; [intros _; split; [constructor|exact ex_init]|cbn; intros x Hx; discriminate]. }
        destruct (rconsume (nrv_read H cfg fuel) fuel caps (last_cap caps) [] (vinit cfg (nropen fuel (NW inner ans) 0)))
          as [[out e] st] eqn:Hrc.
        destruct (rextra (nrv_read H cfg fuel) extra (last_cap caps) st) as [ex st2] eqn:He.
        cbn [z_err z_tree]. intros Hnf.
        destruct (rconsume_tracked _ _ _ TR _ _ _ _ _ _ _ _ Hinitr Hrc) as (A & [->|B]);
          [exfalso; apply Hnf; reflexivity|].
        pose proof (rextra_stuck _ _ _ TR _ _ _ _ _ _ A B He) as ->.
        cbn [v_set_u v_u].
        pose proof (nrobs_ret ans (nrclose (v_u st))) as Hn. rewrite nrclose_ret in Hn.
        destruct (nrobs (nrclose (v_u st))) as [|offs dn kids]; [exact I|]. intros x Hx. rewrite Hn in Hx.
        destruct B as (V & _). rewrite <- V. destruct (proj2 A x Hx) as [E|(E & Hb)]; auto.
      - (* CloneCopy *)
        rewrite whole_out. cbn [z_err z_tree]. intros _. subst t. apply whole_ret.
      - (* Discard *)
        cbn [z_err z_tree]. intros _. subst t. apply discard_root.
    Qed.
  End Clause2.

  Theorem run_tree_clause2 inner ans m :
    z_err (run_tree H cfg fuel (NW inner ans) m) <> EFuel ->
    match z_tree (run_tree H cfg fuel (NW inner ans) m) with
    | ONode offs _ _ =>
        forall x, returnedN ans (length offs) = Some x ->
          z_err (run_tree H cfg fuel (NW inner ans) m) = ECode x \/
          (is_to_reader m = true /\ z_err (run_tree H cfg fuel (NW inner ans) m) = ECode (g_code cfg))
    | OLeaf _ => True
    end.
  Proof.
    intros Hnf. pose proof (run_tree_clause2_ex inner ans (fun _ => True) True) as Hc.
    specialize (Hc ltac:(auto) ltac:(auto) Logic.I m Hnf).
    destruct (z_tree (run_tree H cfg fuel (NW inner ans) m)); [exact I|].
    intros x Hx. destruct (Hc x Hx) as [E|(E1 & E2 & _)]; auto.
  Qed.
End Methods.
