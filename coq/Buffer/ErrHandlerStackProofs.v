(** C16 — stacks of error handlers ([run_stack]): on every path Done is
    reported exactly once to the handler of every level and the scripted
    source of every stream-backed buffer (the original and every replacement
    supplied by any level) is closed exactly once; the offering rule.

    The invariant of the world ([winv d]): the finished levels have received
    exactly one Done, the active levels none, every source given up so far has
    been closed exactly once, [d] levels in all; the plain reader in use owns
    a source that will have been closed exactly once after its Close()
    ([ucr_ok], [urd_ok] of Buffer/ClosedOnceProofs.v).  Close() of the
    outermost reader / the end of a whole operation leads to [wpost d]: all
    [d] levels finished, every source closed once. *)
From Coq Require Import List ZArith NArith Bool Lia.
From BBS Require Import Buffer.Source Buffer.Validate Buffer.Convert Buffer.ErrHandler
  Buffer.ValidateProofs Buffer.PreserveProofs Buffer.ErrHandlerProofs Buffer.ClosedOnceProofs.
Import ListNotations.
Open Scope N_scope.

Definition finished (h : hst) : Prop := count_done (h_log h) = 1%nat.

Lemma done_finished h : quiet h -> finished (done h).
Proof. unfold quiet, finished. intros Hq. cbn. rewrite count_done_done. lia. Qed.
Lemma Forall_done l : Forall quiet l -> Forall finished (map done l).
Proof. induction 1; cbn; constructor; auto using done_finished. Qed.
Lemma all_one_app a b : all_one a -> all_one b -> all_one (a ++ b).
Proof. unfold all_one. intros. apply Forall_app. split; assumption. Qed.

Record winv (d : nat) (w : world) : Prop := mkWinv {
  wi_dn : Forall finished (w_dn w);
  wi_act : Forall quiet (w_act w);
  wi_cl : all_one (w_closed w);
  wi_len : (length (w_dn w) + length (w_act w) = d)%nat
}.
Definition wpost (d : nat) (w : world) : Prop :=
  Forall finished (w_dn w) /\ w_act w = [] /\ all_one (w_closed w) /\ length (w_dn w) = d.

Lemma all_done_post d w : winv d w -> wpost d (all_done w).
Proof.
  intros [Hd Ha Hc Hl]. unfold wpost, all_done. cbn. rsplit.
  - apply Forall_app. split; [exact Hd|apply Forall_done; exact Ha].
  - reflexivity.
  - exact Hc.
  - rewrite app_length, map_length. exact Hl.
Qed.
Lemma retire_inv d w c : winv d w -> all_one c -> winv d (retire w c).
Proof. intros [Hd Ha Hc Hl] H1. constructor; cbn; auto using all_one_app. Qed.
Lemma retire_post d w c : wpost d w -> all_one c -> wpost d (retire w c).
Proof. intros (Hd & Ha & Hc & Hl) H1. unfold wpost. cbn. rsplit; auto using all_one_app. Qed.

Lemma escalate_facts : forall act e ob e' passed act',
  escalate e act = ((ob, e'), passed, act') -> Forall quiet act ->
  Forall quiet passed /\ Forall quiet act' /\
  match ob with
  | Some _ => (length passed + length act' = length act)%nat /\ (answers_left act' < answers_left act)%nat
  | None => length passed = length act /\ act' = []
  end.
Proof.
  induction act as [|h rest IH]; intros e ob e' passed act' He Hq; cbn [escalate] in He.
  - inv He. rsplit; auto.
  - inversion Hq as [|h0 l0 Hqh Hqr]; subst.
    pose proof (on_error_count h e) as Hc. destruct (on_error h e) as [a h'] eqn:Ho. cbn [snd] in Hc.
    assert (Hq' : quiet h') by (unfold quiet in *; lia).
    destruct a as [b|c].
    + inv He. rsplit; auto. cbn [length answers_left fold_right].
      pose proof (on_error_len_replace _ _ _ _ Ho). unfold answers_left. lia.
    + destruct (escalate (ECode c) rest) as [[r p] a'] eqn:Hr. inv He.
      destruct (IH _ _ _ _ _ Hr Hqr) as (Hp & Ha & Hm). rsplit; auto.
      destruct ob.
      * destruct Hm as (Hl & Hlt). cbn [length]. split; [lia|].
        unfold answers_left in *. cbn [fold_right]. lia.
      * destruct Hm as (Hl & ->). cbn [length]. split; [lia|reflexivity].
Qed.

Lemma after_replace_inv d w b e e' passed act' c :
  escalate e (w_act w) = ((Some b, e'), passed, act') -> winv d w -> all_one c ->
  winv d (after_replace w passed act' c) /\ (answers_left act' < answers_left (w_act w))%nat.
Proof.
  intros He [Hd Ha Hc Hl] H1. destruct (escalate_facts _ _ _ _ _ _ He Ha) as (Hp & Hq & Hlen & Hlt).
  split; [|exact Hlt]. constructor; cbn.
  - apply Forall_app. split; [exact Hd|apply Forall_done; exact Hp].
  - exact Hq.
  - apply all_one_app; assumption.
  - rewrite app_length, map_length. lia.
Qed.
Lemma after_failure_inv d w e e' passed act' :
  escalate e (w_act w) = ((None, e'), passed, act') -> winv d w -> winv d (after_failure w passed).
Proof.
  intros He [Hd Ha Hc Hl]. destruct (escalate_facts _ _ _ _ _ _ He Ha) as (Hp & Hq & Hlen & _).
  constructor; cbn; auto. lia.
Qed.

Definition sinv (d : nat) (r : sch) : Prop := winv d (sc_w r) /\ ucr_ok (sc_cur r).
Definition rinv (d : nat) (r : shr) : Prop := winv d (sr_w r) /\ urd_ok (sr_cur r).

Lemma sch_read_inv d ifuel max : forall f r x r',
  sch_read ifuel f max r = (x, r') -> sinv d r -> sinv d r'.
Proof.
  induction f as [|f IH]; intros r x r' Hr [Hw Hu]; [inv Hr; split; assumption|].
  destruct (ucr_read ifuel max (sc_cur r)) as [[chunk t] cur'] eqn:Hrd.
  pose proof (ucr_read_ok _ _ _ _ _ Hrd Hu) as Hu'. destruct (op_done t) eqn:Ht.
  - cbn [sch_read] in Hr. rewrite Hrd in Hr. destruct t; try discriminate Ht; inv Hr; split; assumption.
  - rewrite (sch_read_io _ _ _ _ _ _ _ Hrd Ht) in Hr.
    destruct (escalate t (w_act (sc_w r))) as [[[ob e'] passed] act'] eqn:He. destruct ob as [b|].
    + eapply IH; [exact Hr|]. split; cbn [sc_w sc_cur].
      * eapply after_replace_inv; [exact He|exact Hw|apply ucr_close_ok; exact Hu'].
      * apply ucr_open_ok.
    + inv Hr. split; cbn [sc_w sc_cur]; [eapply after_failure_inv; eassumption|exact Hu'].
Qed.
Lemma sch_close_post d r : sinv d r -> wpost d (sc_w (sch_close r)).
Proof.
  intros [Hw Hu]. unfold sch_close. cbn [sc_w]. apply retire_post; [apply all_done_post; exact Hw|].
  apply ucr_close_ok. exact Hu.
Qed.

Lemma shr_read_inv d fuel cap r x r' : shr_read fuel cap r = (x, r') -> rinv d r -> rinv d r'.
Proof.
  intros Hr [Hw Hu]. destruct (urd_read fuel cap (sr_cur r)) as [[data t] cur'] eqn:Hrd.
  pose proof (urd_read_ok _ _ _ _ _ Hrd Hu) as Hu'. destruct (op_done t) eqn:Ht.
  - rewrite (shr_read_done _ _ _ _ _ _ Hrd Ht) in Hr. inv Hr. split; assumption.
  - rewrite (shr_read_io _ _ _ _ _ _ Hrd Ht) in Hr.
    destruct (escalate t (w_act (sr_w r))) as [[[ob e'] passed] act'] eqn:He.
    destruct ob as [b|]; inv Hr; split; cbn [sr_w sr_cur].
    + eapply after_replace_inv; [exact He|exact Hw|apply urd_close_ok; exact Hu'].
    + apply urd_open_ok.
    + eapply after_failure_inv; eassumption.
    + exact Hu'.
Qed.
Lemma shr_close_post d r : rinv d r -> wpost d (sr_w (shr_close r)).
Proof.
  intros [Hw Hu]. unfold shr_close. cbn [sr_w]. apply retire_post; [apply all_done_post; exact Hw|].
  apply urd_close_ok. exact Hu.
Qed.

Definition good (d : nat) (o : outcome16s) : Prop :=
  length (y_logs o) = d /\ Forall (fun log => count_done log = 1%nat) (y_logs o) /\ all_one (y_closes o).

Lemma wpost_logs d w : wpost d w ->
  length (logs_of w) = d /\ Forall (fun log => count_done log = 1%nat) (logs_of w) /\ all_one (w_closed w).
Proof.
  intros (Hd & Ha & Hc & Hl). unfold logs_of. rewrite Ha, app_nil_r, map_length. rsplit; auto.
  apply Forall_map. exact Hd.
Qed.

Section StackProofs.
  Variable H : bytes -> bytes.
  Variable cfg : vcfg.
  Variable fuel : nat.

  Lemma try_stack_post d : forall n m b w cbs d0 e cbs' w',
    try_stack H cfg fuel n m b w cbs = (d0, e, cbs', w') ->
    winv d w -> (answers_left (w_act w) < n)%nat -> wpost d w'.
  Proof.
    induction n as [|n IH]; intros m b w cbs d0 e cbs' w' Ht Hw Hn; [lia|].
    rewrite try_stack_eq in Ht. cbv zeta in Ht.
    set (o := plain H cfg fuel b m) in *.
    pose proof (retire_inv d w (closes_of b o) Hw (plain_closed_once H cfg fuel b m)) as Hw1.
    set (w1 := retire w (closes_of b o)) in *.
    destruct (op_done (o_err o)); [inv Ht; apply all_done_post; exact Hw1|].
    destruct (escalate (o_err o) (w_act w1)) as [[[ob e'] passed] act'] eqn:He. destruct ob as [b'|].
    - destruct (after_replace_inv d w1 _ _ _ _ _ [] He Hw1 (Forall_nil _)) as (Hw2 & Hlt).
      eapply IH; [exact Ht|exact Hw2|]. cbn [after_replace w_act]. change (w_act w1) with (w_act w) in Hlt. lia.
    - inv Ht. apply all_done_post. eapply after_failure_inv; eassumption.
  Qed.

  Lemma shv_read_inv d max s r s' :
    shv_read H cfg fuel max s = (r, s') -> sinv d (v_u s) -> sinv d (v_u s').
  Proof.
    intros Hr Hq. unfold shv_read in Hr.
    exact (vcr_read_pres _ _ (sinv d)
             (fun s0 r0 s0' Hr0 => sch_read_inv d _ _ _ _ _ _ Hr0) _ _ _ _ _ _ Hr Hq).
  Qed.
  Lemma shrv_read_inv d cap s r s' :
    shrv_read H cfg fuel cap s = (r, s') -> rinv d (v_u s) -> rinv d (v_u s').
  Proof.
    intros Hr Hq. unfold shrv_read in Hr.
    exact (vr_read_pres _ _ (rinv d)
             (fun cap0 s0 r0 s0' Hr0 => shr_read_inv d _ _ _ _ _ Hr0) _ _ _ _ _ _ _ Hr Hq).
  Qed.

  Lemma discarded_post d b w : winv d w -> wpost d (discarded H cfg fuel b w).
  Proof.
    intros Hw. unfold discarded. apply retire_post; [apply all_done_post; exact Hw|apply plain_closed_once].
  Qed.

  Lemma ehs_method_walk (Pc : shv -> Prop) (Pr : shrv -> Prop) (Post : world -> Prop) b w m :
    (forall max s r s', shv_read H cfg fuel max s = (r, s') -> Pc s -> Pc s') ->
    (forall st, Pc st -> Post (sc_w (v_u (shv_close st)))) ->
    (forall cap s r s', shrv_read H cfg fuel cap s = (r, s') -> Pr s -> Pr s') ->
    (forall st, Pr st -> Post (sr_w (shr_close (v_u st)))) ->
    (forall m' d e cbs w', try_stack H cfg fuel (S (answers_left (w_act w))) m' b w [] = (d, e, cbs, w') -> Post w') ->
    Post (discarded H cfg fuel b w) ->
    Pc (vinit cfg (sch_init fuel b w)) -> Pr (vinit cfg (shr_init fuel b w)) ->
    exists w', Post w' /\ y_logs (ehs_method H cfg fuel b w m) = logs_of w' /\
               y_closes (ehs_method H cfg fuel b w m) = w_closed w'.
  Proof.
    intros Hc Hcc Hr Hrc Ht Hdis Hc0 Hr0.
    set (P1 := fun st : shv => Post (sc_w (v_u st))).
    assert (Hcl : forall st, Pc st -> P1 (shv_close st)) by exact Hcc.
    destruct m; cbn [ehs_method].
    - destruct (try_stack _ _ _ _ _ _ _ _) as [[[d0 e] cbs] w'] eqn:E. exists w'. rsplit; eauto.
    - destruct (into_writer_cr _ _ fuel _) as [[out e] st] eqn:E. exists (sc_w (v_u st)). rsplit; auto.
      exact (into_writer_cr_ok _ _ _ Pc P1 (Hc 65536) Hcl _ _ _ _ E Hc0).
    - destruct (try_stack _ _ _ _ _ _ _ _) as [[[d0 e] cbs] w'] eqn:E. exists w'. rsplit; eauto.
    - destruct (valid_offset (g_size cfg) off); [|exists (discarded H cfg fuel b w); auto].
      pose proof (offset_init_ok _ _ shv_close Pc P1 (Hc max) Hcl fuel off _ Hc0) as Hi.
      assert (Hor := offset_read_ok _ (shv_read H cfg fuel max) Pc P1 (Hc max)).
      destruct (drain _ fuel [] _) as [[out e] o] eqn:Hd.
      eapply (drain_pres _ _ (ost_ok Pc P1) Hor) in Hd; [|exact Hi].
      destruct (extra_reads _ extra o) as [ex o2] eqn:He.
      eapply (extra_reads_pres _ _ (ost_ok Pc P1) Hor) in He; [|exact Hd].
      eexists. rsplit; [|reflexivity|reflexivity]. exact (offset_close_ok _ shv_close Pc P1 Hcl _ He).
    - destruct (rconsume _ fuel caps _ [] _) as [[out e] st] eqn:E.
      eapply (rconsume_pres _ _ Pr Hr) in E; [|exact Hr0].
      destruct (rextra _ extra _ st) as [ex st2] eqn:He.
      eapply (rextra_pres _ _ Pr Hr) in He; [|exact E].
      eexists. rsplit; [|reflexivity|reflexivity]. exact (Hrc _ He).
    - destruct (try_stack _ _ _ _ _ _ _ _) as [[[d0 e] cbs] w'] eqn:E. exists w'.
      split; [eauto|destruct e; auto].
    - exists (discarded H cfg fuel b w). auto.
  Qed.

  Lemma ehs_method_good d b w m : winv d w -> good d (ehs_method H cfg fuel b w m).
  Proof.
    intros Hw.
    destruct (ehs_method_walk (fun st => sinv d (v_u st)) (fun st => rinv d (v_u st)) (wpost d) b w m)
      as (w' & Hp & Hl & Hc).
    - intros max s r s'. apply shv_read_inv.
    - intros st Hp. cbn. apply sch_close_post. exact Hp.
    - intros cap s r s'. apply shrv_read_inv.
    - intros st Hp. apply shr_close_post. exact Hp.
    - intros m' d0 e cbs w' Ht. eapply try_stack_post; [exact Ht|exact Hw|lia].
    - apply discarded_post. exact Hw.
    - split; [exact Hw|apply ucr_open_ok].
    - split; [exact Hw|apply urd_open_ok].
    - unfold good. rewrite Hl, Hc. apply wpost_logs. exact Hp.
  Qed.

  Lemma stack_handlers_inv : forall hs b w b' w' d,
    stack_handlers b w hs = (b', w') -> winv d w -> Forall quiet hs ->
    winv (d + length hs) w'.
  Proof.
    induction hs as [|h rest IH]; intros b w b' w' d Hs Hw Hq; cbn [stack_handlers] in Hs.
    - inv Hs. cbn. rewrite Nat.add_0_r. exact Hw.
    - inversion Hq as [|h0 l0 Hqh Hqr]; subst. destruct Hw as [Hd Ha Hc Hl].
      cbn [length]. replace (d + S (length rest))%nat with (S d + length rest)%nat by lia.
      destruct (w_act w) as [|a0 arest] eqn:Eact.
      + destruct (with_error_handler _ b h) as [r h'] eqn:Hweh.
        pose proof (weh_done _ _ _ _ _ Hweh ltac:(lia) Hqh) as Hcnt.
        destruct r as [b1|b1]; eapply IH; try exact Hs; try exact Hqr.
        * constructor; cbn [w_dn w_act w_closed];
            [exact Hd|constructor; [exact Hcnt|constructor]|exact Hc|cbn [length] in *; lia].
        * constructor; cbn [w_dn w_act w_closed];
            [apply Forall_app; split; [exact Hd|constructor; [exact Hcnt|constructor]]
            |constructor|exact Hc|rewrite app_length; cbn [length] in *; lia].
      + eapply IH; [exact Hs| |exact Hqr]. constructor; cbn [w_dn w_act w_closed];
          [exact Hd|apply Forall_app; split; [exact Ha|constructor; [exact Hqh|constructor]]
          |exact Hc|rewrite app_length; cbn [length] in *; lia].
  Qed.

  Theorem run_stack_good b0 anss m : good (length anss) (run_stack H cfg fuel b0 anss m).
  Proof.
    unfold run_stack.
    destruct (stack_handlers b0 _ _) as [b w] eqn:Hs.
    eapply (stack_handlers_inv _ _ _ _ _ 0%nat) in Hs.
    - rewrite map_length in Hs. cbn [Nat.add] in Hs. destruct (w_act w) eqn:Eact.
      + destruct Hs as [Hd Ha Hc Hl]. unfold good. cbn [y_logs y_closes]. unfold logs_of.
        rewrite Eact in *. rewrite app_nil_r, map_length. cbn in Hl. rsplit.
        * lia.
        * apply Forall_map. exact Hd.
        * apply all_one_app; [exact Hc|apply plain_closed_once].
      + apply ehs_method_good. exact Hs.
    - constructor; cbn; auto; constructor.
    - apply Forall_map. apply Forall_forall. intros a _. reflexivity.
  Qed.

  Corollary run_stack_done_every_level b0 anss m :
    length (y_logs (run_stack H cfg fuel b0 anss m)) = length anss /\
    Forall (fun log => count_done log = 1%nat) (y_logs (run_stack H cfg fuel b0 anss m)).
  Proof. destruct (run_stack_good b0 anss m) as (Hl & Hd & _). split; assumption. Qed.
  Corollary run_stack_closed_once b0 anss m :
    Forall (fun n => n = 1%nat) (y_closes (run_stack H cfg fuel b0 anss m)).
  Proof. destruct (run_stack_good b0 anss m) as (_ & _ & Hc). exact Hc. Qed.
End StackProofs.

(** * The offering rule for stacks ([escalate]).

    [offering e act r passed act']: [e] is offered to the innermost active
    handler; an error answer [c] of a handler is what the next outer handler
    is offered; the handlers above one that answers with a replacement are
    not asked; each handler asked is asked once (its log grows by exactly this
    one call); the error answer of the outermost handler is the result. *)
Inductive offering : err -> list hst -> option bufscript * err -> list hst -> list hst -> Prop :=
| of_none e : offering e [] (None, e) [] []
| of_replace e h b rest :
    fst (on_error h e) = Replace b ->
    offering e (h :: rest) (Some b, e) [] (snd (on_error h e) :: rest)
| of_fail e h c rest r passed act' :
    fst (on_error h e) = Fail c ->
    offering (ECode c) rest r passed act' ->
    offering e (h :: rest) r (snd (on_error h e) :: passed) act'.

Theorem escalate_offering : forall act e,
  let '(r, passed, act') := escalate e act in offering e act r passed act'.
Proof.
  induction act as [|h rest IH]; intros e; cbn [escalate]; [constructor|].
  destruct (on_error h e) as [a h'] eqn:Ho. destruct a as [b|c].
  - replace h' with (snd (on_error h e)) by (rewrite Ho; reflexivity).
    apply of_replace. rewrite Ho. reflexivity.
  - specialize (IH (ECode c)). destruct (escalate (ECode c) rest) as [[r p] a'].
    replace h' with (snd (on_error h e)) by (rewrite Ho; reflexivity).
    eapply of_fail; [rewrite Ho; reflexivity|exact IH].
Qed.

(** what the handlers asked have been offered, innermost first: the chain
    [e], then the error answer of each handler in turn *)
Fixpoint offer_chain (e : err) (act : list hst) : list err :=
  match act with
  | [] => []
  | h :: rest => e :: match fst (on_error h e) with Fail c => offer_chain (ECode c) rest | Replace _ => [] end
  end.
Fixpoint grow (hs : list hst) (es : list err) : list (list hev) :=
  match hs, es with
  | h :: hs', e :: es' => (h_log h ++ [HOnError e]) :: grow hs' es'
  | _, _ => map h_log hs
  end.
(** the logs of all handlers after [escalate]: every handler asked has
    received exactly one further OnError, with the error of the chain; the
    others none *)
Theorem escalate_logs : forall act e r passed act',
  escalate e act = (r, passed, act') ->
  map h_log (passed ++ act') = grow act (offer_chain e act) \/
  (fst r = None /\ act' = [] /\ map h_log passed = grow act (offer_chain e act)).
Proof.
  induction act as [|h rest IH]; intros e r passed act' He; cbn [escalate] in He.
  - inv He. left. reflexivity.
  - pose proof (on_error_log h e) as Hl. destruct (on_error h e) as [a h'] eqn:Ho. cbn [snd] in Hl.
    cbn [offer_chain grow]. rewrite Ho. cbn [fst].
    destruct a as [b|c].
    + inv He. left. cbn [app map]. rewrite Hl. f_equal. destruct rest; reflexivity.
    + destruct (escalate (ECode c) rest) as [[r0 p] a'] eqn:Hr. inv He.
      destruct (IH _ _ _ _ Hr) as [Hx|(Hn & -> & Hx)].
      * left. cbn [app map]. rewrite Hl, Hx. reflexivity.
      * left. cbn [app map]. rewrite app_nil_r in *. rewrite Hl, Hx. reflexivity.
Qed.
