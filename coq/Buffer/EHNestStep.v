(** C16N — one Read() of a nested error-handling reader, as rules.

    [nread] and [nrread] (Buffer/EHNest.v) are programs; every invariant of the
    nested readers is proved by induction on the rules [nstep] / [rstep] they
    obey, one short case per rule.  A handler that is offered an error either
    SAYS an error of its own ([said]: the next answer of its script is an
    error, or the script is exhausted and it says ABORTED) or hands out the
    replacement its script holds next.  The whole-operation retries [whole] /
    [try_ans] obey rules of the same kind ([whole_try_ind]): a wrapper hands
    the result of its base to its script; a script passes a result on, answers
    a failure with an error, or tries its next replacement and goes on with
    what is left. *)
From Coq Require Import List ZArith NArith Bool.
From BBS Require Import Buffer.Source Buffer.Validate Buffer.Convert Buffer.ErrHandler Buffer.EHNest.
Import ListNotations.
Open Scope N_scope.

Definition failed (e : err) : Prop := e <> ENone /\ e <> EEof.

Lemma failed_cases e : e = ENone \/ e = EEof \/ failed e.
Proof. destruct e; auto; right; right; split; discriminate. Qed.
Lemma failed_match {A} (e : err) (a b x : A) : failed e -> match e with ENone => a | EEof => b | _ => x end = x.
Proof. intros (N1 & N2). destruct e; congruence. Qed.

(** [said a c r]: a handler with script [a] answers with the error [c] and is left with [r] *)
Inductive said : nanss -> Z -> nanss -> Prop :=
| said_aborted : said ANil 10%Z ANil
| said_error c r : said (AFail c r) c r.

Definition hn_offered (h : hnd) (e : err) (rest : nanss) : hnd :=
  mkHnd rest (hn_off h ++ [e]) (hn_done h) (hn_dead h).

Lemma hn_on_error_cases h e :
  (exists c rest, said (hn_ans h) c rest /\ hn_on_error h e = (NFailWith c, hn_offered h e rest)) \/
  (exists t rest, hn_ans h = ARep t rest /\ hn_on_error h e = (NReplace t, hn_offered h e rest)).
Proof.
  unfold hn_on_error. destruct (hn_ans h) as [|t r|c r].
  - left. exists 10%Z, ANil. split; [constructor|reflexivity].
  - right. exists t, r. split; reflexivity.
  - left. exists c, r. split; [constructor|reflexivity].
Qed.

Section Steps.
  Variable ifuel : nat.

  (** errorHandlingChunkReader.Read(); the index is [nread]'s fuel *)
  Inductive nstep (max : N) : nat -> ncr -> bytes * err -> ncr -> Prop :=
  | ns_fuel r : nstep max O r ([], EFuel) r
  | ns_leaf f u x u' : ucr_read ifuel max u = (x, u') -> nstep max (S f) (CL u) x (CL u')
  | ns_chunk f cur off h chunk cur' :
      nstep max f cur (chunk, ENone) cur' ->
      nstep max (S f) (CE cur off h) (chunk, ENone) (CE cur' (off + lenN chunk) h)
  | ns_eof f cur off h chunk cur' :
      nstep max f cur (chunk, EEof) cur' -> nstep max (S f) (CE cur off h) ([], EEof) (CE cur' off h)
  | ns_said f cur off h chunk e cur' c rest :
      nstep max f cur (chunk, e) cur' -> failed e -> said (hn_ans h) c rest ->
      nstep max (S f) (CE cur off h) ([], ECode c) (CE cur' off (hn_offered h e rest))
  | ns_replaced f cur off h chunk e cur' t rest x r' :
      nstep max f cur (chunk, e) cur' -> failed e -> hn_ans h = ARep t rest ->
      nstep max f (CE (nopen ifuel t off) off (hn_retire (hn_offered h e rest) (nobs (nclose cur')))) x r' ->
      nstep max (S f) (CE cur off h) x r'.

  Lemma nread_nstep max : forall f r x r', nread ifuel f max r = (x, r') -> nstep max f r x r'.
  Proof.
    induction f as [|f IH]; intros r x r' Hr; cbn [nread] in Hr.
    - injection Hr as <- <-. constructor.
    - destruct r as [u|cur off h].
      + destruct (ucr_read ifuel max u) as [y u'] eqn:Hu. injection Hr as <- <-. constructor. exact Hu.
      + destruct (nread ifuel f max cur) as [[chunk e] cur'] eqn:Hc. apply IH in Hc.
        destruct (failed_cases e) as [->|[->|He]].
        * injection Hr as <- <-. constructor. exact Hc.
        * injection Hr as <- <-. econstructor. exact Hc.
        * rewrite (failed_match _ _ _ _ He) in Hr.
          destruct (hn_on_error_cases h e) as [(c & rest & Hs & Ho)|(t & rest & Ha & Ho)]; rewrite Ho in Hr.
          -- injection Hr as <- <-. econstructor; eassumption.
          -- eapply ns_replaced; eauto.
  Qed.

  (** errorHandlingReader.Read(p), [cap = len(p)] *)
  Inductive rstep (cap : N) : nrd -> bytes * err -> nrd -> Prop :=
  | rs_leaf u x u' : urd_read ifuel cap u = (x, u') -> rstep cap (RL u) x (RL u')
  | rs_pass cur off h data e cur' :
      rstep cap cur (data, e) cur' -> e = ENone \/ e = EEof ->
      rstep cap (RE cur off h) (data, e) (RE cur' (off + lenN data) h)
  | rs_said cur off h data e cur' c rest :
      rstep cap cur (data, e) cur' -> failed e -> said (hn_ans h) c rest ->
      rstep cap (RE cur off h) (data, ECode c) (RE cur' (off + lenN data) (hn_offered h e rest))
  | rs_replaced cur off h data e cur' t rest :
      rstep cap cur (data, e) cur' -> failed e -> hn_ans h = ARep t rest ->
      rstep cap (RE cur off h) (data, ENone)
            (RE (nropen ifuel t (off + lenN data)) (off + lenN data)
                (hn_retire (hn_offered h e rest) (nrobs (nrclose cur')))).

  Lemma nrread_rstep cap : forall r x r', nrread ifuel cap r = (x, r') -> rstep cap r x r'.
  Proof.
    induction r as [u|cur IH off h]; intros x r' Hr; cbn [nrread] in Hr.
    - destruct (urd_read ifuel cap u) as [y u'] eqn:Hu. injection Hr as <- <-. constructor. exact Hu.
    - remember (nrread ifuel cap cur) as y eqn:Hc in Hr. destruct y as [[data e] cur']. symmetry in Hc. apply IH in Hc.
      destruct (failed_cases e) as [->|[->|He]].
      + injection Hr as <- <-. constructor; auto.
      + injection Hr as <- <-. constructor; auto.
      + rewrite (failed_match _ _ _ _ He) in Hr.
        destruct (hn_on_error_cases h e) as [(c & rest & Hs & Ho)|(t & rest & Ha & Ho)]; rewrite Ho in Hr;
          injection Hr as <- <-; econstructor; eassumption.
  Qed.
End Steps.

Lemma valid_offset_pos size off : valid_offset size off = true -> (0 <= off)%Z.
Proof. unfold valid_offset. intros Hv. apply andb_true_iff in Hv. apply Z.leb_le. exact (proj1 Hv). Qed.

Lemma whole_out (w : wres) :
  (let '((d, e, cbs), o) := w in mkOutN d e [] cbs [] o) =
  mkOutN (fst (fst (fst w))) (snd (fst (fst w))) [] (snd (fst w)) [] (snd w).
Proof. destruct w as [[[d e] cbs] o]. reflexivity. Qed.

Section TryAns.
  Variable H : bytes -> bytes.
  Variable cfg : vcfg.
  Variable fuel : nat.
  Variable m : meth.

  Lemma try_ans_done ans d e cb o offers dead cbs :
    e = ENone \/ e = EEof ->
    try_ans H cfg fuel m ans ((d, e, cb), o) offers dead cbs = ((d, e, cbs ++ cb), ONode offers 1 (dead ++ [o])).
  Proof. intros [->| ->]; destruct ans; reflexivity. Qed.
  Lemma try_ans_said ans c rest d e cb o offers dead cbs :
    failed e -> said ans c rest ->
    try_ans H cfg fuel m ans ((d, e, cb), o) offers dead cbs =
    (([], ECode c, cbs ++ cb), ONode (offers ++ [e]) 1 (dead ++ [o])).
  Proof. intros (N1 & N2) Hs. destruct Hs; destruct e; try congruence; reflexivity. Qed.
  Lemma try_ans_replaced t rest d e cb o offers dead cbs :
    failed e ->
    try_ans H cfg fuel m (ARep t rest) ((d, e, cb), o) offers dead cbs =
    try_ans H cfg fuel m rest (whole H cfg fuel m t) (offers ++ [e]) (dead ++ [o]) (cbs ++ cb).
  Proof. intros (N1 & N2). destruct e; try congruence; reflexivity. Qed.

  Section Rules.
    Variable Pw : nbuf -> wres -> Prop.
    Variable Pt : nanss -> wres -> list err -> list otree -> list bool -> wres -> Prop.
    Hypothesis w_leaf : forall b,
      Pw (NB b) (let o := plain H cfg fuel b m in ((o_data o, o_err o, o_cbs o), OLeaf (o_closed o))).
    Hypothesis w_node : forall inner ans w w', Pw inner w -> Pt ans w [] [] [] w' -> Pw (NW inner ans) w'.
    Hypothesis t_done : forall ans d e cb o offers dead cbs, e = ENone \/ e = EEof ->
      Pt ans ((d, e, cb), o) offers dead cbs ((d, e, cbs ++ cb), ONode offers 1 (dead ++ [o])).
    Hypothesis t_said : forall ans c rest d e cb o offers dead cbs, failed e -> said ans c rest ->
      Pt ans ((d, e, cb), o) offers dead cbs (([], ECode c, cbs ++ cb), ONode (offers ++ [e]) 1 (dead ++ [o])).
    Hypothesis t_replaced : forall t rest d e cb o offers dead cbs w w', failed e ->
      Pw t w -> Pt rest w (offers ++ [e]) (dead ++ [o]) (cbs ++ cb) w' ->
      Pt (ARep t rest) ((d, e, cb), o) offers dead cbs w'.

    Lemma whole_try_ind :
      (forall t, Pw t (whole H cfg fuel m t)) /\
      (forall ans r offers dead cbs, Pt ans r offers dead cbs (try_ans H cfg fuel m ans r offers dead cbs)).
    Proof.
      assert (Hdone : forall ans d e cb o offers dead cbs, e = ENone \/ e = EEof ->
                Pt ans ((d, e, cb), o) offers dead cbs (try_ans H cfg fuel m ans ((d, e, cb), o) offers dead cbs))
        by (intros; rewrite try_ans_done by assumption; apply t_done; assumption).
      apply nbuf_nanss_ind.
      - exact w_leaf.
      - intros inner IHi ans IHa. exact (w_node _ _ _ _ IHi (IHa _ _ _ _)).
      - intros [[[d e] cb] o] offers dead cbs. destruct (failed_cases e) as [He|[He|He]]; [apply Hdone; auto..|].
        rewrite (try_ans_said _ _ _ _ _ _ _ _ _ _ He said_aborted). exact (t_said _ _ _ _ _ _ _ _ _ _ He said_aborted).
      - intros t IHt rest IHr [[[d e] cb] o] offers dead cbs. destruct (failed_cases e) as [He|[He|He]]; [apply Hdone; auto..|].
        rewrite try_ans_replaced by exact He. exact (t_replaced _ _ _ _ _ _ _ _ _ _ _ He IHt (IHr _ _ _ _)).
      - intros c rest IHr [[[d e] cb] o] offers dead cbs. destruct (failed_cases e) as [He|[He|He]]; [apply Hdone; auto..|].
        rewrite (try_ans_said _ _ _ _ _ _ _ _ _ _ He (said_error c rest)). exact (t_said _ _ _ _ _ _ _ _ _ _ He (said_error c rest)).
    Qed.
  End Rules.
End TryAns.
