(** C16 — whole-operation retries on a stack (ToByteSlice, ReadAt, CloneCopy
    through nested tryRepeatedly): the buffer on which the operation finally
    succeeds is the one the monitor's [buffer_in_use] computes from the scripts
    and the number of offers each level received, and the error the outermost
    handler returned last is the consumer's result. *)
From Coq Require Import List ZArith NArith Bool Lia.
From BBS Require Import Buffer.Source Buffer.Validate Buffer.Convert Buffer.ErrHandler
  Buffer.ValidateProofs Buffer.ErrHandlerProofs Buffer.EHFullStackExact Buffer.EHFullStacking
  Run.R16 Run.R16Proofs.
Import ListNotations.
Open Scope nat_scope.

(** [buffer_in_use] on the numbers of offers *)
Fixpoint biu (cur : option bufscript) (S : list (list answer)) (ns : list nat) : option bufscript :=
  match S, ns with
  | ans :: S', n :: ns' =>
      biu (match n with
           | O => cur
           | Datatypes.S j' => match nth_error ans j' with Some (Replace b) => Some b | _ => None end
           end) S' ns'
  | _, _ => cur
  end.
Lemma buffer_in_use_biu : forall S (offd : list (list Z)) cur,
  buffer_in_use cur S offd = biu cur S (map (@length Z) offd).
Proof.
  induction S as [|a S IH]; intros [|o offd] cur; cbn [buffer_in_use biu map]; try reflexivity. apply IH.
Qed.
Lemma biu_zeros : forall S ns cur, Forall (fun n => n = 0) ns -> biu cur S ns = cur.
Proof.
  induction S as [|a S IH]; intros [|n ns] cur Hz; cbn [biu]; try reflexivity.
  inversion Hz; subst. apply IH. assumption.
Qed.
Lemma biu_app : forall S1 ns1 S2 ns2 cur, length S1 = length ns1 ->
  biu cur (S1 ++ S2) (ns1 ++ ns2) = biu (biu cur S1 ns1) S2 ns2.
Proof.
  induction S1 as [|a S1 IH]; intros [|n ns1] S2 ns2 cur Hl; cbn in Hl; try discriminate; [reflexivity|].
  cbn [app biu]. apply IH. lia.
Qed.

Definition lens (hs : list hst) : list nat := map (fun h => length (oel h)) hs.
Definition lv_ok (a0 : list answer) (h : hst) : Prop := h_answers h = skipn (length (oel h)) a0.
Definition aligned (S : list (list answer)) (hs : list hst) : Prop := Forall2 lv_ok S hs.
Definition hd0 : hst := mkHst [] [].

Lemma lens_done hs : lens (map done hs) = lens hs.
Proof. unfold lens. rewrite map_map. apply map_ext. intros h. now rewrite oel_done. Qed.
Lemma lv_ok_done a0 h : lv_ok a0 h -> lv_ok a0 (done h).
Proof. unfold lv_ok. rewrite oel_done. auto. Qed.
Lemma aligned_done S hs : aligned S hs -> aligned S (map done hs).
Proof. induction 1; cbn; constructor; [apply lv_ok_done|]; assumption. Qed.

Lemma offer_spec a0 h t a h' :
  lv_ok a0 h -> on_error h t = (a, h') ->
  lv_ok a0 h' /\ length (oel h') = Datatypes.S (length (oel h)) /\
  match a with
  | Replace b => nth_error a0 (length (oel h)) = Some (Replace b) /\ returned a0 (Datatypes.S (length (oel h))) = None
  | Fail c => returned a0 (Datatypes.S (length (oel h))) = Some c /\
              match nth_error a0 (length (oel h)) with Some (Replace _) => False | _ => True end
  end.
Proof.
  intros Hok Ho. unfold lv_ok in *.
  destruct (on_error_script h t a0 _ Hok) as (Hf & Hs & Hrep). rewrite Ho in Hf, Hs, Hrep. cbn [fst snd] in *.
  pose proof (oel_on_error h t) as Hl. rewrite Ho in Hl. cbn [snd] in Hl.
  assert (Hlen : length (oel h') = Datatypes.S (length (oel h))) by (rewrite Hl, app_length; cbn; lia).
  rsplit; [rewrite Hlen; exact Hs|exact Hlen|].
  unfold script_answer in Hf. cbn [returned].
  destruct a as [b|c].
  - pose proof (Hrep b eq_refl) as Hn. rewrite Hn. auto.
  - destruct (nth_error a0 (length (oel h))) as [[b|c0]|]; [discriminate|inv Hf; auto|inv Hf; auto].
Qed.

Lemma esc_levels : forall acts Sa t ob e' passed act',
  escalate t acts = ((ob, e'), passed, act') -> aligned Sa acts ->
  (forall h, In h (tl acts) -> oel h = []) ->
  aligned Sa (map done passed ++ act') /\
  match ob with
  | Some b' =>
      (forall cur, biu cur Sa (lens (map done passed ++ act')) = Some b') /\
      (forall h, In h (tl act') -> oel h = []) /\ act' <> [] /\
      returned (last Sa []) (length (oel (last act' hd0))) = None
  | None =>
      act' = [] /\
      (acts <> [] -> exists c, e' = ECode c /\
                              returned (last Sa []) (length (oel (last (map done passed) hd0))) = Some c)
  end.
Proof.
  induction acts as [|h rest IH]; intros Sa t ob e' passed act' He Hal Hno; cbn [escalate] in He.
  - inv He. inversion Hal; subst. cbn. rsplit; auto; try constructor; try congruence.
  - inversion Hal as [|a0 h0 Sr r0 Hok Halr]; subst.
    destruct (on_error h t) as [a h'] eqn:Ho.
    destruct (offer_spec _ _ _ _ _ Hok Ho) as (Hok' & Hlen & Hans).
    assert (Hzr : Forall (fun n => n = 0) (lens rest)).
    { unfold lens. rewrite Forall_map. apply Forall_forall. intros x Hx. rewrite (Hno x Hx). reflexivity. }
    destruct a as [b|c].
    + inv He. cbn [map app]. destruct Hans as (Hn & Hq). rsplit.
      * constructor; assumption.
      * intros cur. cbn [lens map biu]. rewrite Hlen, Hn. fold (lens rest). apply biu_zeros. exact Hzr.
      * exact Hno.
      * discriminate.
      * destruct rest as [|h2 r2].
        -- inversion Halr; subst. cbn. rewrite Hlen. exact Hq.
        -- inversion Halr as [|a2 x2 Sr2 y2 _ _]; subst.
           assert (E1 : last (a0 :: a2 :: Sr2) [] = last (a2 :: Sr2) []) by reflexivity.
           assert (E2 : last (h' :: h2 :: r2) hd0 = last (h2 :: r2) hd0) by reflexivity.
           rewrite E1, E2.
           assert (Hl : oel (last (h2 :: r2) hd0) = []).
           { apply Hno. cbn [tl]. clear. generalize h2. induction r2 as [|x r IH]; intros h; [left; reflexivity|].
             right. apply (IH x). }
           rewrite Hl. reflexivity.
    + destruct (escalate (ECode c) rest) as [[r0 passed0] act0] eqn:Hr. destruct r0 as [ob0 e0]. inv He.
      assert (Hno' : forall x, In x (tl rest) -> oel x = []) by (intros x Hx; apply Hno; cbn [tl]; destruct rest; [contradiction|right; exact Hx]).
      destruct (IH _ _ _ _ _ _ Hr Halr Hno') as (Hal' & Hm).
      destruct Hans as (Hret & Hnr).
      split; [cbn [map app]; constructor; [apply lv_ok_done; exact Hok'|exact Hal']|].
      destruct ob as [b'|].
      * destruct Hm as (Hb & Hno2 & Hne & Hq). rsplit; auto.
        -- intros cur. cbn [map app lens biu]. rewrite oel_done, Hlen. fold (lens (map done passed0 ++ act')).
           destruct (nth_error a0 (length (oel h))) as [[b|c0]|]; [contradiction|apply Hb|apply Hb].
        -- destruct rest as [|h2 r2]; [cbn in Hr; inv Hr|]. inversion Halr; subst. exact Hq.
      * destruct Hm as (-> & Hm). split; [reflexivity|]. intros _.
        destruct rest as [|h2 r2].
        -- cbn in Hr. inv Hr. inversion Halr; subst. exists c. cbn [map last]. rewrite oel_done, Hlen. auto.
        -- destruct (Hm ltac:(discriminate)) as (c1 & -> & Hq). exists c1. split; [reflexivity|].
           inversion Halr as [|a2 x2 Sr2 y2 _ _]; subst.
           assert (E1 : last (a0 :: a2 :: Sr2) [] = last (a2 :: Sr2) []) by reflexivity. rewrite E1.
           assert (Hp0 : passed0 <> []).
           { intros ->. cbn in Hr. destruct (on_error h2 (ECode c)) as [a3 h3]. destruct a3; [inv Hr|].
             destruct (escalate (ECode c0) r2) as [[r3 p3] a4]. destruct r3. inv Hr. }
           destruct passed0 as [|p0 ps]; [congruence|]. cbn [map]. cbn [map] in Hq. exact Hq.
Qed.

Lemma Forall2_app_split {A B} (R : A -> B -> Prop) : forall l1 l2 S,
  Forall2 R S (l1 ++ l2) -> exists S1 S2, S = S1 ++ S2 /\ Forall2 R S1 l1 /\ Forall2 R S2 l2.
Proof.
  induction l1 as [|x l1 IH]; intros l2 S Hf; cbn in Hf.
  - exists [], S. auto.
  - inversion Hf as [|a y S' l' Hr Hf']; subst. destruct (IH _ _ Hf') as (S1 & S2 & -> & H1 & H2).
    exists (a :: S1), S2. rsplit; auto.
Qed.
Lemma Forall2_app_join {A B} (R : A -> B -> Prop) S1 l1 S2 l2 :
  Forall2 R S1 l1 -> Forall2 R S2 l2 -> Forall2 R (S1 ++ S2) (l1 ++ l2).
Proof. induction 1; cbn; auto. Qed.
Lemma last_app_ne {A} (l1 l2 : list A) d : l2 <> [] -> last (l1 ++ l2) d = last l2 d.
Proof.
  intros Hn. induction l1 as [|x l1 IH]; [reflexivity|]. cbn [app]. destruct (l1 ++ l2) eqn:E.
  - apply app_eq_nil in E. destruct E; congruence.
  - rewrite <- E in *. cbn [last]. rewrite E. rewrite <- E. exact IH.
Qed.
Lemma last_map_ne {A B} (f : A -> B) l d1 d2 : l <> [] -> last (map f l) d1 = f (last l d2).
Proof.
  induction l as [|x l IH]; intros Hn; [congruence|]. destruct l as [|y l]; [reflexivity|].
  cbn [map last] in *. apply IH. discriminate.
Qed.
Lemma lens_app a b : lens (a ++ b) = lens a ++ lens b.
Proof. unfold lens. apply map_app. Qed.
Lemma lens_length a : length (lens a) = length a.
Proof. unfold lens. apply map_length. Qed.

Section RetryInvariant.
  Variable H : bytes -> bytes.
  Variable cfg : vcfg.
  Variable fuel : nat.
  Variable S : list (list answer).
  Variable b0 : bufscript.

  Definition J (w : world) (bcur : bufscript) : Prop :=
    aligned S (lv w) /\ biu (Some b0) S (lens (lv w)) = Some bcur /\
    (forall h, In h (tl (w_act w)) -> oel h = []) /\ w_act w <> [] /\
    returned (last S []) (length (oel (last (w_act w) hd0))) = None.

  Lemma lv_retire w c : lv (retire w c) = lv w. Proof. reflexivity. Qed.

  Lemma J_parts w b : J w b ->
    exists S1 S2, S = S1 ++ S2 /\ aligned S1 (w_dn w) /\ aligned S2 (w_act w) /\
                  length S1 = length (lens (w_dn w)) /\ S2 <> [] /\ last S [] = last S2 [].
  Proof.
    intros (Hal & Hb & Hno & Hne & Hq). unfold lv in Hal.
    destruct (Forall2_app_split _ _ _ _ Hal) as (S1 & S2 & ES & Hal1 & Hal2).
    assert (HS2 : S2 <> []) by (intros E; rewrite E in Hal2; inversion Hal2 as [E2|]; congruence).
    exists S1, S2. rsplit; auto.
    - rewrite lens_length. exact (Forall2_len _ _ _ Hal1).
    - rewrite ES. apply last_app_ne. exact HS2.
  Qed.

  Definition retry_result (m : meth) (d : bytes) (e : err) (w' : world) : Prop :=
    aligned S (lv w') /\
    (op_done e = true ->
       exists bf, biu (Some b0) S (lens (lv w')) = Some bf /\ d = o_data (plain H cfg fuel bf m) /\
                  e = o_err (plain H cfg fuel bf m) /\
                  returned (last S []) (length (oel (last (lv w') hd0))) = None) /\
    (op_done e = false ->
       d = [] /\ exists c, e = ECode c /\ returned (last S []) (length (oel (last (lv w') hd0))) = Some c).

  Lemma J_done w b c m : J w b -> op_done (o_err (plain H cfg fuel b m)) = true ->
    retry_result m (o_data (plain H cfg fuel b m)) (o_err (plain H cfg fuel b m)) (all_done (retire w c)).
  Proof.
    intros HJ Hop. destruct (J_parts _ _ HJ) as (S1 & S2 & ES & Hal1 & Hal2 & Hl1 & HS2 & Hlast).
    destruct HJ as (Hal & Hb & Hno & Hne & Hq).
    unfold retry_result, lv, all_done. cbn [w_dn w_act retire]. rewrite app_nil_r.
    split; [|split; [intros _; exists b; rsplit; auto|intros Hf; congruence]].
    - rewrite ES. apply Forall2_app_join; [exact Hal1|apply aligned_done; exact Hal2].
    - unfold lv in Hb. rewrite lens_app, lens_done, <- lens_app. exact Hb.
    - rewrite last_app_ne by (destruct (w_act w); [congruence|discriminate]).
      rewrite (last_map_ne done _ hd0 hd0 Hne), oel_done. exact Hq.
  Qed.

  Lemma J_fail w b c m t e' passed act' : J w b ->
    escalate t (w_act w) = ((None, e'), passed, act') ->
    retry_result m [] e' (all_done (after_failure (retire w c) passed)).
  Proof.
    intros HJ Hesc. destruct (J_parts _ _ HJ) as (S1 & S2 & ES & Hal1 & Hal2 & Hl1 & HS2 & Hlast).
    destruct HJ as (Hal & Hb & Hno & Hne & Hq).
    destruct (esc_levels _ _ _ _ _ _ _ Hesc Hal2 Hno) as (Hal' & Eact & Hm). subst act'. rewrite app_nil_r in Hal'.
    destruct (Hm Hne) as (c0 & -> & Hr).
    unfold retry_result, lv, all_done, after_failure. cbn [w_dn w_act retire]. rewrite app_nil_r.
    split; [|split; [intros Hf; discriminate|intros _; split; [reflexivity|exists c0; split; [reflexivity|]]]].
    - rewrite ES. apply Forall2_app_join; assumption.
    - rewrite Hlast, last_app_ne; [exact Hr|].
      destruct (escalate_nonempty _ _ _ _ _ _ Hesc Hne) as (Hp & _). destruct passed; [congruence|discriminate].
  Qed.

  Lemma J_replace w b c t b' e0 passed act' : J w b ->
    escalate t (w_act w) = ((Some b', e0), passed, act') ->
    J (after_replace (retire w c) passed act' []) b'.
  Proof.
    intros HJ Hesc. destruct (J_parts _ _ HJ) as (S1 & S2 & ES & Hal1 & Hal2 & Hl1 & HS2 & Hlast).
    destruct HJ as (Hal & Hb & Hno & Hne & Hq).
    destruct (esc_levels _ _ _ _ _ _ _ Hesc Hal2 Hno) as (Hal' & Hbiu & Hno' & Hne' & Hq').
    unfold J, lv, after_replace. cbn [w_dn w_act retire]. rsplit; auto.
    - rewrite ES, <- app_assoc. apply Forall2_app_join; assumption.
    - rewrite ES, <- app_assoc, lens_app, biu_app by exact Hl1. apply Hbiu.
    - rewrite Hlast. exact Hq'.
  Qed.

  Theorem try_stack_J : forall n m b w cbs d e cbs' w',
    try_stack H cfg fuel n m b w cbs = (d, e, cbs', w') -> J w b -> e <> EFuel -> retry_result m d e w'.
  Proof.
    induction n as [|n IH]; intros m b w cbs d e cbs' w' Ht HJ Hef; rewrite try_stack_eq in Ht; cbv zeta in Ht;
      (destruct (op_done (o_err (plain H cfg fuel b m))) eqn:Hop;
       [injection Ht as <- <- <- <-; apply J_done; assumption|]);
      cbn [retire w_act] in Ht;
      destruct (escalate (o_err (plain H cfg fuel b m)) (w_act w)) as [[[ob e'] passed] act'] eqn:Hesc;
      destruct ob as [b'|].
    - injection Ht as <- <- <- <-. congruence.
    - injection Ht as <- <- <- <-. eapply J_fail; eassumption.
    - eapply IH; [exact Ht| |exact Hef]. eapply J_replace; eassumption.
    - injection Ht as <- <- <- <-. eapply J_fail; eassumption.
  Qed.
End RetryInvariant.

Definition known_stream (b : bufscript) : Prop := match b with BError _ => False | _ => True end.

Lemma weh_level : forall n b a0 h r h',
  with_error_handler n b h = (r, h') -> length (h_answers h) < n -> lv_ok a0 h ->
  let b' := match r with inl x | inr x => x end in
  lv_ok a0 h' /\
  ((length (oel h') = length (oel h) /\ b' = b /\ known_stream b) \/
   (exists j, length (oel h') = Datatypes.S j /\ length (oel h) <= j /\
      ((nth_error a0 j = Some (Replace b') /\ returned a0 (Datatypes.S j) = None /\ known_stream b') \/
       (exists c, b' = BError c /\ returned a0 (Datatypes.S j) = Some c /\
                  match nth_error a0 j with Some (Replace _) => False | _ => True end /\
                  match r with inr _ => True | inl _ => False end)))).
Proof.
  induction n as [|n IH]; intros b a0 h r h' Hw Hl Hok; [lia|].
  destruct b as [evs|evs a|d|c]; cbn [with_error_handler] in Hw.
  - inv Hw. split; [exact Hok|]. left. cbn. auto.
  - inv Hw. split; [exact Hok|]. left. cbn. auto.
  - inv Hw. split; [apply lv_ok_done; exact Hok|]. left. rewrite oel_done. cbn. auto.
  - destruct (on_error h (ECode c)) as [a h1] eqn:Ho.
    destruct (offer_spec _ _ _ _ _ Hok Ho) as (Hok1 & Hlen & Hans).
    destruct a as [b1|c1].
    + pose proof (on_error_len_replace _ _ _ _ Ho) as Hlr.
      destruct (IH _ _ _ _ _ Hw ltac:(lia) Hok1) as (Hok' & Hcase). split; [exact Hok'|]. right.
      destruct Hans as (Hn & Hq).
      destruct Hcase as [(Hsame & -> & Hks)|(j & Hj & Hle & Hc)].
      * exists (length (oel h)). rewrite Hsame, Hlen. rsplit; auto.
      * exists j. rsplit; auto. lia.
    + inv Hw. destruct Hans as (Hret & Hnr). split; [apply lv_ok_done; exact Hok1|]. right.
      exists (length (oel h)). rewrite oel_done, Hlen. rsplit; auto. right. exists c1. cbn. rsplit; auto.
Qed.

Section Stacking.
  Variable b0 : bufscript.

  (** the state while the handlers are applied and no level is active yet:
      [Sd] the scripts of the levels processed so far, [dn] those levels *)
  Definition K (Sd : list (list answer)) (dn : list hst) (bcur : bufscript) : Prop :=
    aligned Sd dn /\
    ((biu (Some b0) Sd (lens dn) = Some bcur /\ known_stream bcur \/
      biu (Some b0) Sd (lens dn) = Some bcur /\ dn = []) /\
     (dn <> [] -> returned (last Sd []) (length (oel (last dn hd0))) = None)
     \/
     (exists c, bcur = BError c /\ dn <> [] /\ returned (last Sd []) (length (oel (last dn hd0))) = Some c)).

  Lemma fresh_lv_ok a : lv_ok a (mkHst a []).
  Proof. unfold lv_ok. cbn. reflexivity. Qed.

  Lemma biu_snoc Sd ns a n cur : length Sd = length ns ->
    biu cur (Sd ++ [a]) (ns ++ [n]) =
    match n with O => biu cur Sd ns | Datatypes.S j => match nth_error a j with Some (Replace b) => Some b | _ => None end end.
  Proof. intros Hl. rewrite biu_app by exact Hl. cbn. destruct n; reflexivity. Qed.

  Lemma last_snoc {A} (l : list A) (x : A) d : last (l ++ [x]) d = x.
  Proof. apply last_app_ne. discriminate. Qed.

  Theorem stacked_state : forall anss Sd b w b' w',
    stack_handlers b w (map (fun a => mkHst a []) anss) = (b', w') -> w_act w = [] ->
    K Sd (w_dn w) b ->
    (w_act w' <> [] -> J (Sd ++ anss) b0 w' b') /\
    (w_act w' = [] -> K (Sd ++ anss) (w_dn w') b').
  Proof.
    induction anss as [|a rest IH]; intros Sd b w b' w' Hs Hw HK; cbn [map stack_handlers] in Hs.
    - inv Hs. rewrite app_nil_r. split; [congruence|auto].
    - rewrite Hw in Hs. destruct (with_error_handler _ b (mkHst a [])) as [r h'] eqn:Hweh.
      destruct (weh_level _ _ a _ _ _ Hweh ltac:(cbn; lia) (fresh_lv_ok a)) as (Hok' & Hcase). cbn [oel h_log flat_map length] in Hcase.
      destruct HK as (Hal & HKc).
      assert (Hlen : length Sd = length (lens (w_dn w))) by (rewrite lens_length; exact (Forall2_len _ _ _ Hal)).
      (* the value of [biu] after this level and what the level returned last *)
      set (bn := match r with inl x | inr x => x end) in *.
      assert (Hnew : (biu (Some b0) (Sd ++ [a]) (lens (w_dn w ++ [h'])) = Some bn /\ known_stream bn /\
                      returned a (length (oel h')) = None) \/
                     (exists c, bn = BError c /\ returned a (length (oel h')) = Some c /\ match r with inr _ => True | inl _ => False end)).
      { rewrite lens_app. cbn [lens map]. rewrite biu_snoc by exact Hlen.
        destruct Hcase as [(Hz & Eb & Hks)|(j & Hj & _ & [(Hn & Hq & Hks)|(c & Eb & Hq & Hnr & Hr)])].
        - left. rewrite Hz. cbn. rewrite Eb. rsplit; auto.
          destruct HKc as [([(Hb & _)|(Hb & _)] & _)|(c & -> & _)]; [exact Hb|exact Hb|contradiction].
        - left. rewrite Hj, Hn. auto.
        - right. exists c. rewrite Hj. auto. }
      destruct r as [b1|b1]; cbn [bn] in *.
      + (* the level becomes active *)
        destruct (stack_push _ _ _ _ _ Hs ltac:(cbn; discriminate)) as (-> & Hd & Ha). cbn [w_dn w_act] in Hd, Ha.
        split; [|intros E; rewrite Ha in E; discriminate]. intros _.
        destruct Hnew as [(Hb & Hks & Hq)|(c & _ & _ & [])].
        assert (Hfresh : Forall2 lv_ok rest (map (fun a1 => mkHst a1 []) rest))
          by (clear; induction rest; cbn; constructor; [apply fresh_lv_ok|assumption]).
        assert (Hz : Forall (fun n => n = 0) (lens (map (fun a1 => mkHst a1 []) rest)))
          by (unfold lens; rewrite !Forall_map; apply Forall_forall; intros; reflexivity).
        unfold J, lv. rewrite Hd, Ha. rsplit.
        * apply Forall2_app_join; [exact Hal|]. cbn [app]. constructor; [exact Hok'|exact Hfresh].
        * change (Sd ++ a :: rest) with (Sd ++ [a] ++ rest).
          rewrite !app_assoc, lens_app, biu_app.
          -- rewrite Hb. apply biu_zeros. exact Hz.
          -- rewrite app_length, lens_length, app_length, (Forall2_len _ _ _ Hal). reflexivity.
        * cbn [tl]. intros h Hin. apply in_map_iff in Hin. destruct Hin as (a1 & <- & _). reflexivity.
        * discriminate.
        * destruct rest as [|a2 r2].
          -- cbn [map]. rewrite last_snoc. cbn [last]. exact Hq.
          -- rewrite (last_app_ne [h']) by discriminate.
             rewrite (last_map_ne (fun a1 : list answer => mkHst a1 []) (a2 :: r2) hd0 []) by discriminate. reflexivity.
      + (* the level is finished at once *)
        assert (HK' : K (Sd ++ [a]) (w_dn w ++ [h']) b1).
        { unfold K. split; [apply Forall2_app_join; [exact Hal|constructor; [exact Hok'|constructor]]|].
          rewrite !last_snoc.
          destruct Hnew as [(Hb & Hks & Hq)|(c & Eb & Hq & _)].
          - left. split; [left; auto|auto].
          - right. exists c. split; [exact Eb|]. split; [intros E; apply app_eq_nil in E; destruct E as (_ & E); discriminate E|exact Hq]. }
        specialize (IH (Sd ++ [a]) b1 (mkW (w_dn w ++ [h']) [] (w_closed w)) b' w' Hs eq_refl HK').
        rewrite <- app_assoc in IH. exact IH.
  Qed.
End Stacking.
