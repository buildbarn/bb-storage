(** C09 — every decorator and consumer of pkg/blobstore/buffer
    modelled in Buffer/Source.v and Buffer/Convert.v depends on the reader it
    wraps only through the reads it performs: if two read functions agree on
    a set of states [P] that reads (and Close) do not leave, the decorated
    readers / consumers agree as well and stay inside [P].

    Used twice: with [rd1 = rd2] it is preservation of an invariant through
    any consumption method; with the validators for two hash functions it is
    "the hash is not consulted". *)
From Coq Require Import List ZArith NArith Bool Lia.
From BBS Require Import Buffer.Source Buffer.Convert.
Import ListNotations.
Open Scope N_scope.

(** two results are equal and the resulting state is in [P] *)
Definition same {X S : Type} (P : S -> Prop) (a b : X * S) : Prop := a = b /\ P (snd a).
Definition agree {S : Type} (P : S -> Prop) (rd1 rd2 : S -> (bytes * err) * S) : Prop :=
  forall s, P s -> same P (rd1 s) (rd2 s).
Definition ragree {S : Type} (P : S -> Prop) (rd1 rd2 : N -> S -> (bytes * err) * S) : Prop :=
  forall cap s, P s -> same P (rd1 cap s) (rd2 cap s).

Lemma same_refl {X S : Type} (P : S -> Prop) (a : X * S) : P (snd a) -> same P a a.
Proof. split; auto. Qed.

Section OverChunk.
  Variable S : Type.
  Variable P : S -> Prop.
  Variables rd1 rd2 : S -> (bytes * err) * S.
  Variable cl : S -> S.
  Hypothesis Hag : agree P rd1 rd2.
  Hypothesis Hcl : forall s, P s -> P (cl s).

  Lemma drain_agree : forall f out s, P s -> same P (drain rd1 f out s) (drain rd2 f out s).
  Proof.
    induction f as [|f IH]; intros out s Hs; cbn [drain]; [apply same_refl; exact Hs|].
    destruct (Hag s Hs) as [E Hp]. rewrite <- E. destruct (rd1 s) as [[c e] s']. cbn [snd] in Hp.
    destruct e; try (apply same_refl; exact Hp). apply IH; exact Hp.
  Qed.

  Lemma extra_reads_agree : forall k s, P s -> same P (extra_reads rd1 k s) (extra_reads rd2 k s).
  Proof.
    induction k as [|k IH]; intros s Hs; cbn [extra_reads]; [apply same_refl; exact Hs|].
    destruct (Hag s Hs) as [E Hp]. rewrite <- E. destruct (rd1 s) as [r s']. cbn [snd] in Hp.
    destruct (IH s' Hp) as [E2 Hp2]. rewrite <- E2. destruct (extra_reads rd1 k s') as [l s''].
    apply same_refl. exact Hp2.
  Qed.

  Lemma discard_cr_agree : forall f off s, P s ->
    same P (discard_from_chunk_reader rd1 f off s) (discard_from_chunk_reader rd2 f off s).
  Proof.
    induction f as [|f IH]; intros off s Hs; cbn [discard_from_chunk_reader];
      (destruct (off =? 0); [apply same_refl; exact Hs|]); [apply same_refl; exact Hs|].
    destruct (Hag s Hs) as [E Hp]. rewrite <- E. destruct (rd1 s) as [[c e] s']. cbn [snd] in Hp.
    destruct e; try (apply same_refl; exact Hp).
    destruct (off <? lenN c); [apply same_refl; exact Hp|]. apply IH; exact Hp.
  Qed.

  Definition Po (o : ost S) : Prop := P (o_u o).

  Lemma offset_init_agree f off s : P s ->
    offset_init rd1 cl f off s = offset_init rd2 cl f off s /\ Po (offset_init rd1 cl f off s).
  Proof.
    intros Hs. unfold offset_init. destruct (off <? 0)%Z; [split; [reflexivity|apply Hcl; exact Hs]|].
    destruct (discard_cr_agree f (Z.to_N off) s Hs) as [E Hp]. rewrite <- E.
    destruct (discard_from_chunk_reader rd1 f (Z.to_N off) s) as [[prefix e] s']. cbn [snd] in Hp.
    destruct e; split; try reflexivity; unfold Po; cbn [o_u]; auto.
  Qed.

  Lemma offset_read_agree : agree Po (offset_read rd1) (offset_read rd2).
  Proof.
    intros o Ho. unfold offset_read. destruct (o_fixed o); try (apply same_refl; exact Ho).
    destruct (is_nil (o_prefix o)); [|apply same_refl; exact Ho].
    destruct (Hag (o_u o) Ho) as [E Hp]. rewrite <- E. destruct (rd1 (o_u o)) as [r u'].
    apply same_refl. exact Hp.
  Qed.

  Lemma offset_close_P o : Po o -> Po (offset_close cl o).
  Proof. unfold Po, offset_close. destruct (o_fixed o); cbn [o_u]; auto. Qed.

  Definition Pn (n : nst S) : Prop := P (n_u n).

  Lemma norm_read_agree max : forall f, agree Pn (norm_read rd1 f max) (norm_read rd2 f max).
  Proof.
    induction f as [|f IH]; intros n Hn; cbn [norm_read].
    - destruct (negb (is_nil (n_last n))); [destruct (max <? lenN (n_last n))|]; apply same_refl; exact Hn.
    - destruct (negb (is_nil (n_last n))); [destruct (max <? lenN (n_last n)); apply same_refl; exact Hn|].
      destruct (Hag (n_u n) Hn) as [E Hp]. rewrite <- E. destruct (rd1 (n_u n)) as [[c e] u']. cbn [snd] in Hp.
      destruct e; try (apply same_refl; exact Hp). apply IH. exact Hp.
  Qed.

  Lemma norm_close_P n : Pn n -> Pn (norm_close cl n).
  Proof. unfold Pn, norm_close. cbn [n_u]. auto. Qed.

  Definition Pcb (st : cbst S) : Prop := P (cb_u st).

  Lemma cb_loop_agree : forall f left got st, Pcb st ->
    same Pcb (cb_loop rd1 f left got st) (cb_loop rd2 f left got st).
  Proof.
    induction f as [|f IH]; intros left got st Hs; cbn [cb_loop];
      (destruct (left =? 0); [apply same_refl; exact Hs|]); [apply same_refl; exact Hs|].
    destruct (Hag (cb_u st) Hs) as [E Hp]. rewrite <- E. destruct (rd1 (cb_u st)) as [[c e] u']. cbn [snd] in Hp.
    destruct e; try (apply same_refl; exact Hp). apply IH. exact Hp.
  Qed.

  Lemma cb_read_agree f : ragree Pcb (cb_read rd1 f) (cb_read rd2 f).
  Proof. intros cap st Hs. unfold cb_read. apply cb_loop_agree. exact Hs. Qed.

  Lemma cb_close_P st : Pcb st -> Pcb (cb_close cl st).
  Proof. unfold Pcb, cb_close. cbn [cb_u]. auto. Qed.

  Lemma into_writer_cr_agree f s : P s -> same P (into_writer_cr rd1 cl f s) (into_writer_cr rd2 cl f s).
  Proof.
    intros Hs. unfold into_writer_cr. destruct (drain_agree f [] s Hs) as [E Hp]. rewrite <- E.
    destruct (drain rd1 f [] s) as [[out e] s']. apply same_refl. cbn [snd] in *. auto.
  Qed.

  Lemma to_byte_slice_cr_agree f size max s : P s ->
    same P (to_byte_slice_cr rd1 cl f size max s) (to_byte_slice_cr rd2 cl f size max s).
  Proof.
    intros Hs. unfold to_byte_slice_cr. destruct (max <? size); [apply same_refl; cbn [snd]; auto|].
    destruct (drain_agree f [] s Hs) as [E Hp]. rewrite <- E.
    destruct (drain rd1 f [] s) as [[out e] s']. apply same_refl. cbn [snd] in *. auto.
  Qed.
End OverChunk.

Section ReadAt.
  Variable S : Type.
  Variable P : S -> Prop.
  Variables rd1 rd2 : S -> (bytes * err) * S.
  Variable cl : S -> S.
  Hypothesis Hag : agree P rd1 rd2.
  Hypothesis Hcl : forall s, P s -> P (cl s).

  Lemma read_at_fill_agree : forall f left got o, Po S P o ->
    same (Po S P) (read_at_fill rd1 f left got o) (read_at_fill rd2 f left got o).
  Proof.
    induction f as [|f IH]; intros left got o Ho; cbn [read_at_fill];
      (destruct (left =? 0); [apply same_refl; exact Ho|]); [apply same_refl; exact Ho|].
    destruct (offset_read_agree S P rd1 rd2 Hag o Ho) as [E Hp]. rewrite <- E.
    destruct (offset_read rd1 o) as [[c e] o']. cbn [snd] in Hp.
    destruct e; try (apply same_refl; exact Hp). apply IH. exact Hp.
  Qed.

  Lemma read_at_cr_agree f plen off s : P s ->
    same (Po S P) (read_at_cr rd1 cl f plen off s) (read_at_cr rd2 cl f plen off s).
  Proof.
    intros Hs. unfold read_at_cr.
    destruct (offset_init_agree S P rd1 rd2 cl Hag Hcl f off s Hs) as [E Ho]. rewrite <- E.
    destruct (read_at_fill_agree f plen [] _ Ho) as [E2 Ho2]. rewrite <- E2.
    destruct (read_at_fill rd1 f plen [] (offset_init rd1 cl f off s)) as [[got e] o]. cbn [snd] in Ho2.
    pose proof (offset_close_P S P cl Hcl) as Hc.
    destruct e; try (apply same_refl; cbn [snd]; auto).
    destruct (drain_agree (ost S) (Po S P) _ _ (offset_read_agree S P rd1 rd2 Hag) f [] o Ho2) as [E3 Ho3].
    rewrite <- E3. destruct (drain (offset_read rd1) f [] o) as [[x e2] o2]. cbn [snd] in Ho3.
    apply same_refl. cbn [snd]. auto.
  Qed.
End ReadAt.

Section OverReaderAgree.
  Variable S : Type.
  Variable P : S -> Prop.
  Variables rd1 rd2 : N -> S -> (bytes * err) * S.
  Hypothesis Hag : ragree P rd1 rd2.

  Lemma read_full_loop_agree : forall f want got s, P s ->
    same P (read_full_loop rd1 f want got s) (read_full_loop rd2 f want got s).
  Proof.
    induction f as [|f IH]; intros want got s Hs; cbn [read_full_loop];
      (destruct (want <=? lenN got); [apply same_refl; exact Hs|]); [apply same_refl; exact Hs|].
    destruct (Hag (want - lenN got) s Hs) as [E Hp]. rewrite <- E.
    destruct (rd1 (want - lenN got) s) as [[c e] s']. cbn [snd] in Hp.
    destruct e; try (destruct (want <=? lenN (got ++ c)); apply same_refl; exact Hp).
    apply IH. exact Hp.
  Qed.

  Lemma read_full_agree f want s : P s -> same P (read_full rd1 f want s) (read_full rd2 f want s).
  Proof. apply read_full_loop_agree. Qed.

  Lemma copy_loop_agree : forall f cap w s, P s -> same P (copy_loop rd1 f cap w s) (copy_loop rd2 f cap w s).
  Proof.
    induction f as [|f IH]; intros cap w s Hs; cbn [copy_loop]; [apply same_refl; exact Hs|].
    destruct (Hag cap s Hs) as [E Hp]. rewrite <- E. destruct (rd1 cap s) as [[c e] s']. cbn [snd] in Hp.
    destruct e; try (apply same_refl; exact Hp). apply IH. exact Hp.
  Qed.

  Lemma copy_agree f s : P s -> same P (copy rd1 f s) (copy rd2 f s).
  Proof. apply copy_loop_agree. Qed.

  Lemma copy_n_loop_agree : forall f left s, P s -> same P (copy_n_loop rd1 f left s) (copy_n_loop rd2 f left s).
  Proof.
    induction f as [|f IH]; intros left s Hs; cbn [copy_n_loop];
      (destruct (left =? 0); [apply same_refl; exact Hs|]); [apply same_refl; exact Hs|].
    destruct (Hag (N.min discard_buf left) s Hs) as [E Hp]. rewrite <- E.
    destruct (rd1 (N.min discard_buf left) s) as [[c e] s']. cbn [snd] in Hp.
    destruct e; try (apply same_refl; exact Hp). apply IH. exact Hp.
  Qed.

  Lemma discard_from_reader_agree f off s : P s ->
    same P (discard_from_reader rd1 f off s) (discard_from_reader rd2 f off s).
  Proof.
    intros Hs. unfold discard_from_reader. destruct (off <? 0)%Z; [apply same_refl; exact Hs|].
    apply copy_n_loop_agree. exact Hs.
  Qed.

  Definition Prb (st : rbst S) : Prop := P (rb_u st).

  Lemma rb_read_agree f max : agree Prb (rb_read rd1 f max) (rb_read rd2 f max).
  Proof.
    intros st Hs. unfold rb_read. destruct (rb_err st); try (apply same_refl; exact Hs).
    destruct (read_full_agree f max (rb_u st) Hs) as [E Hp]. rewrite <- E.
    destruct (read_full rd1 f max (rb_u st)) as [[data e] u']. cbn [snd] in Hp.
    destruct (negb (is_nil data)); apply same_refl; exact Hp.
  Qed.

  Lemma rconsume_agree : forall f caps lc out s, P s ->
    same P (rconsume rd1 f caps lc out s) (rconsume rd2 f caps lc out s).
  Proof.
    induction f as [|f IH]; intros caps lc out s Hs; cbn [rconsume]; [apply same_refl; exact Hs|].
    destruct (Hag (hd lc caps) s Hs) as [E Hp]. rewrite <- E.
    destruct (rd1 (hd lc caps) s) as [[c e] s']. cbn [snd] in Hp.
    destruct e; try (apply same_refl; exact Hp). apply IH. exact Hp.
  Qed.

  Lemma rextra_agree : forall k cap s, P s -> same P (rextra rd1 k cap s) (rextra rd2 k cap s).
  Proof.
    induction k as [|k IH]; intros cap s Hs; cbn [rextra]; [apply same_refl; exact Hs|].
    destruct (Hag cap s Hs) as [E Hp]. rewrite <- E. destruct (rd1 cap s) as [r s']. cbn [snd] in Hp.
    destruct (IH cap s' Hp) as [E2 Hp2]. rewrite <- E2. destruct (rextra rd1 k cap s') as [l s''].
    apply same_refl. exact Hp2.
  Qed.
End OverReaderAgree.
