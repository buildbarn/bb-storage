(** C15, model M1: the monitor [mon15_mux] is silent on the model's own
    output [run15_mux], for every input with at least one consumer and a
    terminal code other than 99 (the item -(1+99) = -100 is the harness's
    marker for a panic in a consumer, so the monitor would read it as one). *)
From BBS Require Import Common.Sx Buffer.Mux Buffer.MuxProofs Buffer.MuxSeq Run.R15.
From BBS Require Common.SxFactsMA.
From Coq Require Import Arith Lia.
Local Open Scope nat_scope.

Section Drain.
  Variable nchunks : nat.
  Variable term : Z.
  Notation step := (step nchunks term).
  Notation run_skip := (run_skip nchunks term).
  Notation Inv := (Inv nchunks term).
  Notation items := (items nchunks term).

  Lemma run_skip_app a : forall s b, run_skip s (a ++ b) = run_skip (run_skip s a) b.
  Proof. induction a as [|i a IH]; intros s b; cbn; [reflexivity|apply IH]. Qed.

  Lemma run_skip_rank l : forall s, Inv s -> rank (run_skip s l) <= rank s.
  Proof.
    induction l as [|i l IH]; intros s HI; cbn; [lia|].
    destruct (step s i) as [s1|] eqn:E; [|apply IH; exact HI].
    pose proof (step_decreases nchunks term _ _ _ HI E).
    pose proof (IH s1 (step_inv nchunks term _ _ _ HI E)). lia.
  Qed.

  Lemma run_skip_progress l : forall s i s', Inv s -> In i l -> step s i = Some s' ->
    rank (run_skip s l) < rank s.
  Proof.
    induction l as [|j l IH]; intros s i s' HI Hin Hs; [contradiction|]. cbn.
    destruct (step s j) as [s1|] eqn:E.
    - pose proof (step_decreases nchunks term _ _ _ HI E).
      pose proof (run_skip_rank l s1 (step_inv nchunks term _ _ _ HI E)). lia.
    - destruct Hin as [->|Hin]; [congruence|]. eapply IH; eassumption.
  Qed.

  Lemma step_index s i s' : step s i = Some s' -> i < length (cs s).
  Proof.
    unfold Mux.step. destruct (panicked s); [discriminate|].
    destruct (nth_error (cs s) i) eqn:E; [|discriminate]. intros _.
    apply nth_error_Some. congruence.
  Qed.

  Lemma all_done_rank0 s : all_done s = true -> rank s = 0.
  Proof.
    unfold all_done, rank. induction (cs s) as [|c l IH]; cbn; [reflexivity|].
    intros H. apply andb_true_iff in H. destruct H as [Hc Hl]. rewrite (IH Hl).
    unfold is_st in Hc. unfold rank1. destruct (st c); try discriminate. reflexivity.
  Qed.

  Lemma drain tot k : forall s, Inv s -> Seq tot s -> rank s <= k ->
    all_done (run_skip s (concat (repeat (seq 0 (length tot)) k))) = true.
  Proof.
    induction k as [|k IH]; intros s HI HS Hr.
    - cbn. apply (rank_zero_done nchunks term s HI). lia.
    - cbn [repeat concat]. rewrite run_skip_app.
      set (s' := run_skip s (seq 0 (length tot))).
      assert (HI' : Inv s') by (apply run_skip_inv; exact HI).
      assert (HS' : Seq tot s') by (apply run_skip_seq; exact HS).
      apply IH; [exact HI'|exact HS'|].
      destruct (all_done s) eqn:Ed.
      + pose proof (all_done_rank0 s Ed). pose proof (run_skip_rank (seq 0 (length tot)) s HI). fold s' in H0. lia.
      + destruct (no_stuck nchunks term s HI Ed) as (i & s1 & Hs).
        assert (Hlen : length (cs s) = length tot).
        { destruct HS as [Ht _]. rewrite <- Ht, map_length. reflexivity. }
        assert (Hin : In i (seq 0 (length tot))).
        { apply in_seq. pose proof (step_index _ _ _ Hs). lia. }
        pose proof (run_skip_progress _ _ _ _ HI Hin Hs). fold s' in H. lia.
  Qed.
End Drain.

Lemma existsb_false_forall {A} (f : A -> bool) l : (forall x, In x l -> f x = false) -> existsb f l = false.
Proof.
  induction l as [|h t IH]; intros H; cbn; [reflexivity|].
  rewrite (H h (or_introl eq_refl)), IH; [reflexivity|]. intros x Hx. apply H. right. exact Hx.
Qed.

Lemma items_no_marker nch term k : term <> 99%Z -> existsb (Z.eqb (-100)) (items nch term k) = false.
Proof.
  intros Ht. apply existsb_false_forall. intros x Hx. unfold items in Hx.
  apply in_map_iff in Hx. destruct Hx as (j & <- & _). unfold item_at.
  apply Z.eqb_neq. destruct (Nat.ltb j nch); lia.
Qed.

Theorem mon15_mux_silent inp :
  sx_list (sx_nth inp 3) <> [] -> sx_Z (sx_nth inp 2) <> 99%Z ->
  mon15_mux inp (run15_mux inp) = [].
Proof.
  intros Hne Hterm. unfold mon15_mux, run15_mux.
  set (nch := sx_nat (sx_nth inp 1)). set (term := sx_Z (sx_nth inp 2)).
  set (progs := map dec_cprog (sx_list (sx_nth inp 3))).
  assert (Hpne : progs <> []).
  { unfold progs. destruct (sx_list (sx_nth inp 3)); [contradiction|discriminate]. }
  set (s1 := run_skip nch term (init progs) (sx_nats (sx_nth inp 4))).
  set (s2 := run_skip nch term s1 _).
  assert (HI1 : Inv nch term s1) by (apply run_skip_inv, init_inv; exact Hpne).
  assert (HS1 : Seq (map prog_reads progs) s1) by (apply run_skip_seq, init_seq).
  assert (HI2 : Inv nch term s2) by (apply run_skip_inv; exact HI1).
  assert (HS2 : Seq (map prog_reads progs) s2) by (apply run_skip_seq; exact HS1).
  assert (Hdone : all_done s2 = true).
  { unfold s2. replace (length progs) with (length (map prog_reads progs)) by apply map_length.
    apply drain; [exact HI1|exact HS1|lia]. }
  assert (Hpan : panicked s2 = false) by (apply (no_panic nch term); exact HI2).
  assert (Hcl : closed s2 = 1) by (apply (closed_once_after_all nch term s2 HI2); exact Hdone).
  rewrite Hdone, Hpan, Hcl.
  cbn [sx_list skipn]. unfold sx_nth. cbn [sx_list nth]. rewrite SxFactsMA.sx_bool_of_bool. cbn [andb negb].
  rewrite map_map.
  assert (Hg : map (fun c => sx_Zs (of_Zs (got c))) (cs s2) = map (spec_seq nch term) progs).
  { apply map_eq_pointwise; [apply (seq_length_cs _ _ HS2)|].
    intros i c p Hc Hp. rewrite SxFactsMA.sx_Zs_of_Zs.
    destruct (position nch term s2 progs i c p HI2 HS2 Hc Hp) as (_ & _ & _ & _ & Hd).
    rewrite (Hd (all_done_st s2 c Hdone (nth_error_In _ _ Hc))). destruct p as [[r d] z]. cbn. destruct d; reflexivity. }
  rewrite Hg.
  assert (H11 : existsb (fun g => existsb (Z.eqb (-100)) g) (map (spec_seq nch term) progs) = false).
  { apply existsb_false_forall. intros g Hin. apply in_map_iff in Hin. destruct Hin as ([[r d] z] & <- & _).
    cbn. destruct d; [reflexivity|apply items_no_marker; exact Hterm]. }
  rewrite H11. rewrite map_map, SxFactsMA.sx_eqb_refl. reflexivity.
Qed.
