(** C09 — the validating chunk reader over ANY underlying chunk reader:
    completion implies validity, the final portion is withheld, callbacks
    are sound, errors are sticky and have one of three origins. *)
From Coq Require Import List ZArith NArith Bool Lia.
From BBS Require Import Buffer.Source Buffer.Validate Buffer.StreamProofs.
Import ListNotations.
Open Scope N_scope.

Ltac inv H := inversion H; subst; clear H.
Ltac rsplit := repeat match goal with |- _ /\ _ => split end.

(* for equations between tuples; [inversion] leaves a much larger term there *)
Ltac inj H := revert H; intros [=]; subst.

Lemma err_none_or e : e = ENone \/ e <> ENone.
Proof. destruct e; [left|right..]; congruence. Qed.

(** What one Read of the casValidatingChunkReader asks of the reader underneath (it is
    pulled some bytes, or its stream ends) and what it makes of the answer. *)
Section VcrDid.
  Variable H : bytes -> bytes.
  Variable cfg : vcfg.
  Variable S : Type.
  Variable rd : S -> (bytes * err) * S.
  Notation gc := (ECode (g_code cfg)).

  Definition ran (u : S) (bs : bytes) (ot : option err) (u' : S) : Prop :=
    match ot with None => pulls rd u bs u' | Some t => drains rd u bs t u' end.

  Lemma ran_cons u c u1 bs ot u' : rd u = ((c, ENone), u1) -> ran u1 bs ot u' -> ran u (c ++ bs) ot u'.
  Proof. destruct ot; intros Hr Hx; [eapply drains_step|eapply pulls_step]; eassumption. Qed.
  Lemma ran_one u c u' : rd u = ((c, ENone), u') -> ran u c None u'.
  Proof. intros Hr. rewrite <- (app_nil_r c). eapply ran_cons; [exact Hr|constructor]. Qed.

  Definition finalized (st st' : vst S) (e : err) (r : bytes) (ot : option err) : Prop :=
    match ot with
    | None => (e = EFuel /\ v_cbs st' = v_cbs st) \/ (e = gc /\ 0 < lenN r /\ v_cbs st' = v_cbs st ++ [false])
    | Some t => r = [] /\
        ((e = t /\ t <> EEof /\ v_cbs st' = v_cbs st) \/
         (t = EEof /\ e = gc /\ g_hash cfg <> H (v_acc st) /\ v_cbs st' = v_cbs st ++ [false]) \/
         (t = EEof /\ e = EEof /\ g_hash cfg = H (v_acc st) /\ v_cbs st' = v_cbs st ++ [true]))
    end.

  Lemma finalize_did : forall f (st : vst S) e st',
    finalize_loop H cfg rd f st = (e, st') -> v_rem st = 0 ->
    e <> ENone /\ v_err st' = v_err st /\ exists r ot, ran (v_u st) r ot (v_u st') /\ finalized st st' e r ot.
  Proof.
    induction f as [|f IH]; intros st e st' Hf Hz; cbn [finalize_loop] in Hf.
    - inj Hf. rsplit; [congruence|reflexivity|]. exists [], None. split; [constructor|left; auto].
    - destruct (rd (v_u st)) as [[chunk e0] u'] eqn:Hr.
      assert (Hx : e0 <> ENone -> ran (v_u st) [] (Some e0) u') by (intros Hne; eapply drains_end; eassumption).
      destruct e0; cbn [v_set_u v_rem v_u v_acc v_err v_cbs] in Hf;
        try (inj Hf; cbn; (rsplit; [congruence|reflexivity|]); eexists [], (Some _);
             (split; [apply Hx; congruence|]); split; [reflexivity|left; rsplit; auto; congruence]).
      + destruct (v_rem st <? lenN chunk) eqn:Hlt.
        * apply N.ltb_lt in Hlt. unfold v_fail in Hf. inj Hf. cbn. rsplit; [congruence|reflexivity|].
          exists chunk, None. split; [exact (ran_one _ _ _ Hr)|right; rsplit; auto; lia].
        * apply N.ltb_ge in Hlt. assert (chunk = []) by (apply lenN_zero; lia). subst chunk.
          destruct (IH _ _ _ Hf Hz) as (Hne & He & r & ot & Hran & Hot). cbn in He, Hran.
          rsplit; [exact Hne|exact He|]. exists r, ot. split; [exact (ran_cons _ _ _ _ _ _ Hr Hran)|exact Hot].
      + destruct (bytes_eqb _ _) eqn:Eh; [|unfold v_fail in Hf]; inj Hf; cbn; (rsplit; [congruence|reflexivity|]);
          exists [], (Some EEof); (split; [apply Hx; congruence|]); (split; [reflexivity|]); right.
        * right. apply bytes_eqb_eq in Eh. rsplit; auto.
        * left. rsplit; auto. intros E. apply bytes_eqb_eq in E. congruence.
  Qed.

  Lemma maybe_finalize_did f (st : vst S) e st' :
    maybe_finalize H cfg rd f st = (e, st') ->
    (e = ENone /\ st' = st /\ 0 < v_rem st) \/
    (v_rem st = 0 /\ e <> ENone /\ v_err st' = v_err st /\
     exists r ot, ran (v_u st) r ot (v_u st') /\ finalized st st' e r ot).
  Proof.
    unfold maybe_finalize. intros Hm. destruct (0 <? v_rem st) eqn:Hpos.
    - apply N.ltb_lt in Hpos. inj Hm. left. auto.
    - apply N.ltb_ge in Hpos. right. split; [lia|]. apply (finalize_did _ _ _ _ Hm). lia.
  Qed.

  (** [c ++ r]: what the reader underneath handed out during the call ([r] is withheld or beyond the size) *)
  Definition vcr_full (st : vst S) (c : bytes) (e : err) (st' : vst S) : Prop :=
    (e <> ENone -> c = []) /\
    exists r ot, ran (v_u st) (c ++ r) ot (v_u st') /\
      match ot with
      | None =>
          (e = ENone /\ v_err st' = ENone /\ r = [] /\ v_acc st' = v_acc st ++ c /\ v_rem st' + lenN c = v_rem st /\
           0 < v_rem st' /\ v_cbs st' = v_cbs st) \/
          (e = EFuel /\ v_err st' = EFuel /\ v_cbs st' = v_cbs st) \/
          (e = gc /\ v_err st' = gc /\ v_rem st < lenN (c ++ r) /\ v_cbs st' = v_cbs st ++ [false])
      | Some t =>
          lenN (c ++ r) <= v_rem st /\
          ((e = t /\ v_err st' = t /\ t <> EEof /\ v_cbs st' = v_cbs st) \/
           (t = EEof /\ e = gc /\ v_err st' = gc /\
            (lenN (c ++ r) <> v_rem st \/ g_hash cfg <> H (v_acc st ++ c ++ r)) /\ v_cbs st' = v_cbs st ++ [false]) \/
           (t = EEof /\ (e = ENone \/ e = EEof) /\ v_err st' = EEof /\ r = [] /\ lenN c = v_rem st /\
            g_hash cfg = H (v_acc st ++ c) /\ v_cbs st' = v_cbs st ++ [true]))
      end.

  Lemma vcr_read_full fuel (st : vst S) c e st' :
    vcr_read H cfg rd fuel st = ((c, e), st') -> v_err st = ENone -> vcr_full st c e st'.
  Proof.
    unfold vcr_read, vcr_do_read, vcr_full. intros Hr Herr. rewrite Herr in Hr.
    destruct (maybe_finalize H cfg rd fuel st) as [e0 st0] eqn:Hm.
    destruct (maybe_finalize_did _ _ _ _ Hm) as [(-> & -> & Hpos)|(Hz & Hne & _ & r & ot & Hran & Hot)].
    2:{ (* nothing was expected any more *)
      assert (Hx : (c, e, st') = ([], e0, v_set_err st0 e0)) by (destruct e0; congruence).
      inj Hx. cbn [app v_set_err v_u v_err v_cbs]. split; [auto|]. exists r, ot. split; [exact Hran|].
      destruct ot as [t|]; cbn in Hot.
      - destruct Hot as (-> & Ht). rewrite Hz, !app_nil_r. split; [cbn; lia|].
        destruct Ht as [(-> & A & B)|[(-> & -> & A & B)|(-> & -> & A & B)]]; auto 10.
      - rewrite Hz. destruct Hot as [(-> & B)|(-> & Hl & B)]; auto 10. }
    destruct (rd (v_u st)) as [[chunk e1] u'] eqn:Hrd. cbn [v_set_u v_rem v_u v_acc v_err v_cbs] in Hr.
    assert (Hend : e1 <> ENone -> ran (v_u st) [] (Some e1) u') by (intros Hne; eapply drains_end; eassumption).
    (* the reader's own error is passed on (a premature io.EOF as a validation failure) *)
    destruct e1;
      try (inj Hr; cbn [app v_set_err v_u v_err v_cbs]; (split; [auto|]);
           eexists [], (Some _); (split; [apply Hend; congruence|]); split; [cbn; lia|left; rsplit; auto; congruence]).
    2:{ unfold v_fail in Hr. inj Hr. cbn [app v_set_err v_notify v_u v_err v_cbs]. split; [auto|].
        exists [], (Some EEof). split; [apply Hend; congruence|]. split; [cbn; lia|]. right. left. rsplit; auto.
        left. cbn. lia. }
    destruct (v_rem st <? lenN chunk) eqn:Hlt.
    - apply N.ltb_lt in Hlt. unfold v_fail in Hr. inj Hr. cbn [app v_set_err v_notify v_u v_err v_cbs].
      split; [auto|]. exists chunk, None. split; [exact (ran_one _ _ _ Hrd)|auto 10].
    - apply N.ltb_ge in Hlt. clear Hm.
      destruct (maybe_finalize H cfg rd fuel _) as [e2 st2] eqn:Hm2.
      destruct (maybe_finalize_did _ _ _ _ Hm2) as [(-> & -> & Hpos1)|(Hz1 & Hne2 & _ & r & ot & Hran & Hot)];
        cbn [v_u v_rem v_acc v_cbs] in *.
      + inj Hr. cbn [v_set_err v_u v_err v_acc v_rem v_cbs]. split; [congruence|].
        exists [], None. rewrite app_nil_r. split; [exact (ran_one _ _ _ Hrd)|]. left. rsplit; auto. lia.
      + (* the size was reached with this chunk and the loop ran *)
        pose proof (ran_cons _ _ _ _ _ _ Hrd Hran) as Hall.
        destruct ot as [t|]; cbn [finalized] in Hot.
        * destruct Hot as (-> & Ht). rewrite app_nil_r in Hall.
          destruct Ht as [(-> & A & B)|[(-> & -> & A & B)|(-> & -> & A & B)]].
          -- assert (Hx : (c, e, st') = ([], t, v_set_err st2 t)) by (destruct t; congruence).
             inj Hx. cbn [app v_set_err v_u v_err v_cbs]. split; [auto|]. exists chunk, (Some t).
             split; [exact Hall|]. split; [exact Hlt|auto].
          -- inj Hr. cbn [app v_set_err v_u v_err v_cbs]. split; [auto|]. exists chunk, (Some EEof).
             split; [exact Hall|]. split; [exact Hlt|]. right. left. rsplit; auto.
          -- (* io.EOF and the right checksum: the chunk is handed out, io.EOF kept for the next Read *)
             inj Hr. cbn [v_set_err v_u v_err v_cbs]. split; [congruence|]. exists [], (Some EEof). rewrite app_nil_r.
             split; [exact Hall|]. split; [exact Hlt|]. right. right. rsplit; auto. lia.
        * assert (Hx : (c, e, st') = ([], e2, v_set_err st2 e2)) by (destruct Hot as [(-> & _)|(-> & _)]; congruence).
          inj Hx. cbn [app v_set_err v_u v_err v_cbs]. split; [auto|]. exists (chunk ++ r), None. split; [exact Hall|].
          destruct Hot as [(-> & B)|(-> & Hl & B)]; [auto 10|]. right. right. rsplit; auto. rewrite lenN_app. lia.
  Qed.

  Definition vcr_did (st : vst S) (c : bytes) (e : err) (st' : vst S) : Prop :=
    (e <> ENone -> c = [] /\ v_err st' = e) /\ (e = ENone -> v_err st' = ENone \/ v_err st' = EEof) /\
    exists r ot, ran (v_u st) (c ++ r) ot (v_u st') /\
      match ot with
      | None =>
          match v_err st' with
          | ENone => r = [] /\ v_acc st' = v_acc st ++ c /\ v_rem st' + lenN c = v_rem st
          | EFuel => True
          | x => x = gc /\ v_rem st < lenN (c ++ r)
          end
      | Some t => (v_err st' = t \/ (t = EEof /\ v_err st' = gc)) /\ (v_err st' = EEof -> r = [])
      end.

  Lemma vcr_read_did fuel (st : vst S) c e st' :
    vcr_read H cfg rd fuel st = ((c, e), st') -> v_err st = ENone -> vcr_did st c e st'.
  Proof.
    intros Hr Herr. destruct (vcr_read_full _ _ _ _ _ Hr Herr) as (Hc & r & ot & Hran & Hot).
    assert (Hx : (e <> ENone -> v_err st' = e) /\ (e = ENone -> v_err st' = ENone \/ v_err st' = EEof) /\
                 match ot with
                 | None =>
                     match v_err st' with
                     | ENone => r = [] /\ v_acc st' = v_acc st ++ c /\ v_rem st' + lenN c = v_rem st
                     | EFuel => True
                     | x => x = gc /\ v_rem st < lenN (c ++ r)
                     end
                 | Some t => (v_err st' = t \/ (t = EEof /\ v_err st' = gc)) /\ (v_err st' = EEof -> r = [])
                 end).
    { destruct ot as [t|].
      - destruct Hot as (_ & [(-> & -> & Hne & _)|[(-> & -> & -> & _)|(-> & He & -> & -> & _)]]).
        + pose proof (drains_not_none _ _ _ _ _ _ Hran). rsplit; auto; congruence.
        + rsplit; auto; congruence.
        + rsplit; auto. destruct He; congruence.
      - destruct Hot as [(-> & -> & -> & A & B & _)|[(-> & -> & _)|(-> & -> & Hl & _)]]; rsplit; auto; congruence. }
    destruct Hx as (A & B & C). split; [auto|]. split; [exact B|]. exists r, ot. auto.
  Qed.
End VcrDid.

Section VcrProofs.
  Variable H : bytes -> bytes.
  Variable cfg : vcfg.
  Variable S : Type.
  Variable rd : S -> (bytes * err) * S.
  Variable fuel : nat.

  Notation vrd := (vcr_read H cfg rd fuel).

  (** The stream of the underlying reader, read from [s0] to its first
      error, ends with io.EOF and has the digest's size and hash. *)
  Definition valid_stream (s0 : S) : Prop :=
    exists bs s', drains rd s0 bs EEof s' /\ lenN bs = g_size cfg /\ g_hash cfg = H bs.

  Definition cb_ok (s0 : S) (cbs : list bool) : Prop :=
    (In true cbs -> valid_stream s0) /\ (In false cbs -> ~ valid_stream s0).

  (** where a failure [e] of the validated stream can come from *)
  Definition origin (s0 : S) (e : err) : Prop :=
    e = EFuel \/ (e = ECode (g_code cfg) /\ ~ valid_stream s0) \/
    (e <> EEof /\ exists bs u', drains rd s0 bs e u').

  Lemma cb_ok_true s0 cbs : cb_ok s0 cbs -> valid_stream s0 -> cb_ok s0 (cbs ++ [true]).
  Proof.
    intros [Ht Hf] Hv. split; intros Hin; [exact Hv|].
    apply in_app_or in Hin. destruct Hin as [Hin|[Hin|[]]]; [auto|discriminate].
  Qed.
  Lemma cb_ok_false s0 cbs : cb_ok s0 cbs -> ~ valid_stream s0 -> cb_ok s0 (cbs ++ [false]).
  Proof.
    intros [Ht Hf] Hv. split; intros Hin; [|exact Hv].
    apply in_app_or in Hin. destruct Hin as [Hin|[Hin|[]]]; [auto|discriminate].
  Qed.

  Lemma too_long_invalid s0 bs u : pulls rd s0 bs u -> g_size cfg < lenN bs -> ~ valid_stream s0.
  Proof.
    intros Hp Hl (full & s' & Hd & Hs & _).
    destruct (pulls_prefix_drains _ _ _ _ _ _ _ _ Hp Hd) as (rest & -> & _).
    rewrite lenN_app in Hs. lia.
  Qed.

  Lemma vcr_read_failed st : v_err st <> ENone -> vrd st = (([], v_err st), st).
  Proof. unfold vcr_read. destruct (v_err st); congruence. Qed.

  (** The invariant below records, for a failed validator, where the failure
      [e] comes from.  Its proofs need three things of such an account [O];
      [origin] provides them, and so does the sharper
      [C09FullValidate.origin2]. *)
  Section Account.
    Variable O : S -> err -> Prop.
    Hypothesis O_fuel : forall s0, O s0 EFuel.
    Hypothesis O_code : forall s0, ~ valid_stream s0 ->
      (exists bs u, pulls rd s0 bs u /\ g_size cfg < lenN bs) \/ (exists bs u, drains rd s0 bs EEof u) ->
      O s0 (ECode (g_code cfg)).
    Hypothesis O_pass : forall s0 e bs u,
      drains rd s0 bs e u -> e <> EEof -> lenN bs <= g_size cfg -> O s0 e.

    Lemma fails_too_long s0 bs u :
      pulls rd s0 bs u -> g_size cfg < lenN bs -> ~ valid_stream s0 /\ O s0 (ECode (g_code cfg)).
    Proof.
      intros Hp Hl. assert (Hnv : ~ valid_stream s0) by (eapply too_long_invalid; eassumption).
      split; [exact Hnv|]. apply O_code; [exact Hnv|]. left. eauto.
    Qed.

    Lemma fails_at_eof s0 bs u :
      drains rd s0 bs EEof u -> lenN bs <> g_size cfg \/ g_hash cfg <> H bs ->
      ~ valid_stream s0 /\ O s0 (ECode (g_code cfg)).
    Proof.
      intros Hd Hbad. assert (Hnv : ~ valid_stream s0).
      { intros (full & s' & Hd' & Hs & Hh).
        destruct (drains_det _ _ _ _ _ _ _ _ _ Hd Hd') as (<- & _). tauto. }
      split; [exact Hnv|]. apply O_code; [exact Hnv|]. right. eauto.
    Qed.

    (** The invariant that links a validator state to what its consumer has
        received so far ([out]) and to the underlying stream from [s0]. *)
    Definition InvBy (s0 : S) (st : vst S) (out : bytes) : Prop :=
      cb_ok s0 (v_cbs st) /\
      match v_err st with
      | ENone => pulls rd s0 out (v_u st) /\ v_acc st = out /\
                 v_rem st + lenN out = g_size cfg /\ (0 < v_rem st \/ out = [])
      | EEof => (exists u, drains rd s0 out EEof u) /\ lenN out = g_size cfg /\ g_hash cfg = H out
      | e => (lenN out < g_size cfg \/ out = []) /\ O s0 e
      end.

    Lemma InvBy_init u0 : InvBy u0 (vinit cfg u0) [].
    Proof.
      split; [split; intros []|]. cbn. rsplit; auto; [apply pulls_nil|unfold lenN; cbn; lia].
    Qed.

    Lemma InvBy_failed s0 st out :
      cb_ok s0 (v_cbs st) -> v_err st <> ENone -> v_err st <> EEof ->
      lenN out < g_size cfg \/ out = [] -> O s0 (v_err st) -> InvBy s0 st out.
    Proof.
      intros Hc Hn1 Hn2 Hb Ho. split; [exact Hc|]. destruct (v_err st); try congruence; auto.
    Qed.

    Lemma vcr_read_step s0 st out c e st' :
      InvBy s0 st out -> vrd st = ((c, e), st') ->
      match e with
      | ENone => InvBy s0 st' (out ++ c)
      | _ => c = [] /\ v_err st' = e /\ InvBy s0 st' out
      end.
    Proof.
      intros [Hc Hi] Hr. destruct (err_none_or (v_err st)) as [Herr|Hne].
      2:{ rewrite (vcr_read_failed st Hne) in Hr. injection Hr as <- <- <-. revert Hi Hne. unfold InvBy.
          destruct (v_err st); intros Hi Hne; try congruence; rsplit; auto; apply Hi. }
      rewrite Herr in Hi. destruct Hi as (Hp0 & <- & Hl0 & Hpos).
      assert (Hbound : lenN (v_acc st) < g_size cfg \/ v_acc st = []) by (destruct Hpos; [left; lia|right; assumption]).
      destruct (vcr_read_full _ _ _ _ _ _ _ _ _ Hr Herr) as (Hc0 & r & ot & Hran & Hot).
      assert (Hfail : e <> ENone -> e <> EEof -> v_err st' = e -> cb_ok s0 (v_cbs st') -> O s0 e ->
                      c = [] /\ v_err st' = e /\ InvBy s0 st' (v_acc st)).
      { intros N1 N2 E Hcb Ho. rsplit; auto. apply InvBy_failed; rewrite ?E; auto. }
      destruct ot as [t|]; cbn [ran] in Hran.
      - destruct Hot as (Hlen & Hcase). pose proof (pulls_drains _ _ _ _ _ _ _ _ Hp0 Hran) as Hd.
        pose proof (drains_not_none _ _ _ _ _ _ Hran) as Hnn.
        destruct Hcase as [(-> & E & Hne & Hcb)|[(-> & -> & E & Hbad & Hcb)|(-> & He & E & -> & Hl & Hh & Hcb)]].
        + (* the reader's own error *)
          assert (Ho : O s0 t) by (eapply O_pass; [exact Hd|exact Hne|rewrite lenN_app; lia]).
          rewrite Hcb in Hfail. destruct t; try congruence; apply Hfail; auto; congruence.
        + destruct (fails_at_eof s0 _ _ Hd) as [Hnv Ho].
          { rewrite lenN_app. destruct Hbad as [Hbad|Hbad]; [left; lia|right; exact Hbad]. }
          apply Hfail; auto; try congruence. rewrite Hcb. apply cb_ok_false; assumption.
        + rewrite app_nil_r in Hd. assert (Hlen' : lenN (v_acc st ++ c) = g_size cfg) by (rewrite lenN_app; lia).
          assert (Hv : InvBy s0 st' (v_acc st ++ c)).
          { split; [rewrite Hcb; apply cb_ok_true; [exact Hc|exists (v_acc st ++ c), (v_u st'); auto]|]. rewrite E. eauto. }
          destruct He as [->| ->]; [exact Hv|]. rewrite (Hc0 ltac:(congruence)), app_nil_r in Hv. rsplit; auto.
      - pose proof (pulls_trans _ _ _ _ _ _ _ Hp0 Hran) as Hp.
        destruct Hot as [(-> & E & -> & Ha & Hrem & Hpos' & Hcb)|[(-> & E & Hcb)|(-> & E & Hl & Hcb)]].
        + rewrite app_nil_r in Hp. split; [rewrite Hcb; exact Hc|]. rewrite E. rsplit; auto. rewrite lenN_app. lia.
        + apply Hfail; auto; try congruence.
        + destruct (fails_too_long s0 _ _ Hp) as [Hnv Ho]; [rewrite lenN_app; lia|].
          apply Hfail; auto; try congruence. rewrite Hcb. apply cb_ok_false; assumption.
    Qed.

    Lemma vcr_pulls_by s0 st out bs st' :
      InvBy s0 st out -> pulls vrd st bs st' -> InvBy s0 st' (out ++ bs).
    Proof.
      intros Hi Hp. revert out Hi. induction Hp as [st|st c st1 bs st2 Hr _ IH]; intros out Hi.
      - now rewrite app_nil_r.
      - rewrite app_assoc. apply IH. exact (vcr_read_step _ _ _ _ _ _ Hi Hr).
    Qed.

    Lemma vcr_drains_by s0 st out bs e st' :
      InvBy s0 st out -> drains vrd st bs e st' -> InvBy s0 st' (out ++ bs) /\ v_err st' = e.
    Proof.
      intros Hi Hd. revert out Hi. induction Hd as [st c e st1 Hr Hne|st c st1 bs e st2 Hr _ IH]; intros out Hi.
      - pose proof (vcr_read_step _ _ _ _ _ _ Hi Hr) as Hs. rewrite app_nil_r.
        destruct e; try congruence; destruct Hs as (_ & He & Hi'); auto.
      - rewrite app_assoc. apply IH. exact (vcr_read_step _ _ _ _ _ _ Hi Hr).
    Qed.
  End Account.

  Definition Inv (s0 : S) (st : vst S) (out : bytes) : Prop :=
    cb_ok s0 (v_cbs st) /\
    match v_err st with
    | ENone => pulls rd s0 out (v_u st) /\ v_acc st = out /\
               v_rem st + lenN out = g_size cfg /\ (0 < v_rem st \/ out = [])
    | EEof => (exists u, drains rd s0 out EEof u) /\ lenN out = g_size cfg /\ g_hash cfg = H out
    | e => (lenN out < g_size cfg \/ out = []) /\ origin s0 e
    end.

  Lemma Inv_init u0 : Inv u0 (vinit cfg u0) [].
  Proof. exact (InvBy_init origin u0). Qed.

  Lemma origin_fuel s0 : origin s0 EFuel.
  Proof. left. reflexivity. Qed.
  Lemma origin_code s0 : ~ valid_stream s0 ->
    (exists bs u, pulls rd s0 bs u /\ g_size cfg < lenN bs) \/ (exists bs u, drains rd s0 bs EEof u) ->
    origin s0 (ECode (g_code cfg)).
  Proof. intros Hnv _. right. left. auto. Qed.
  Lemma origin_pass s0 e bs u :
    drains rd s0 bs e u -> e <> EEof -> lenN bs <= g_size cfg -> origin s0 e.
  Proof. intros Hd Hne _. right. right. eauto. Qed.

  Lemma vcr_pulls s0 st out bs st' :
    Inv s0 st out -> pulls vrd st bs st' -> Inv s0 st' (out ++ bs).
  Proof. exact (vcr_pulls_by origin origin_fuel origin_code origin_pass s0 st out bs st'). Qed.

  Lemma vcr_drains s0 st out bs e st' :
    Inv s0 st out -> drains vrd st bs e st' -> Inv s0 st' (out ++ bs) /\ v_err st' = e.
  Proof. exact (vcr_drains_by origin origin_fuel origin_code origin_pass s0 st out bs e st'). Qed.


  (** Completion: the validated stream reaches io.EOF after handing out
      [out] only if the underlying stream is exactly [out], ends with io.EOF,
      and has the digest's size and hash. *)
  Theorem vcr_complete_implies_valid u0 out st' :
    drains vrd (vinit cfg u0) out EEof st' ->
    (exists u, drains rd u0 out EEof u) /\ lenN out = g_size cfg /\ g_hash cfg = H out.
  Proof.
    intros Hd. destruct (vcr_drains _ _ _ _ _ _ (Inv_init u0) Hd) as [[_ Hi] He].
    rewrite He in Hi. exact Hi.
  Qed.

  (** Withholding: whatever number of reads the consumer performs, if the
      underlying stream is not valid it has received fewer than [size] bytes
      (nothing at all for an empty digest). *)
  Theorem vcr_withhold u0 out st' :
    pulls vrd (vinit cfg u0) out st' -> ~ valid_stream u0 -> lenN out < g_size cfg \/ out = [].
  Proof.
    intros Hp Hnv. destruct (vcr_pulls _ _ _ _ _ (Inv_init u0) Hp) as [_ Hi]. cbn [app] in Hi.
    destruct (v_err st').
    - destruct Hi as (_ & _ & Hl & [Hpos|Hn]); [left; lia|right; assumption].
    - destruct Hi as ((u & Hd) & Hl & Hh). exfalso. apply Hnv. exists out, u. auto.
    - tauto.
    - tauto.
    - tauto.
  Qed.

  (** Callback soundness in every reachable state. *)
  Theorem vcr_callback_sound u0 out st' :
    pulls vrd (vinit cfg u0) out st' ->
    (In true (v_cbs st') -> valid_stream u0) /\ (In false (v_cbs st') -> ~ valid_stream u0).
  Proof. intros Hp. exact (proj1 (vcr_pulls _ _ _ _ _ (Inv_init u0) Hp)). Qed.

  Theorem vcr_callback_sound_end u0 out e st' :
    drains vrd (vinit cfg u0) out e st' ->
    (In true (v_cbs st') -> valid_stream u0) /\ (In false (v_cbs st') -> ~ valid_stream u0).
  Proof. intros Hd. exact (proj1 (proj1 (vcr_drains _ _ _ _ _ _ (Inv_init u0) Hd))). Qed.

  (** Where a failure comes from: the source's own first error is passed
      through; otherwise the code is the Source's and the stream is invalid. *)
  Theorem vcr_error_origin u0 out e st' :
    drains vrd (vinit cfg u0) out e st' -> e <> EEof ->
    e = EFuel \/ (e = ECode (g_code cfg) /\ ~ valid_stream u0) \/
    (exists bs u', drains rd u0 bs e u').
  Proof.
    intros Hd Hne. pose proof (drains_not_none _ _ _ _ _ _ Hd) as Hnn.
    destruct (vcr_drains _ _ _ _ _ _ (Inv_init u0) Hd) as [[_ Hi] He]. rewrite He in Hi.
    destruct e; try congruence; destruct Hi as (_ & [?|[?|[_ ?]]]); auto.
  Qed.

  (** A stream that ends cleanly but is invalid fails with the Source's code. *)
  Theorem vcr_mismatch_code u0 content uend out e st' :
    drains rd u0 content EEof uend -> ~ valid_stream u0 ->
    drains vrd (vinit cfg u0) out e st' -> e = ECode (g_code cfg) \/ e = EFuel.
  Proof.
    intros Hsrc Hnv Hd.
    destruct (err_eqb e EEof) eqn:Ee.
    - destruct e; try discriminate. exfalso. apply Hnv.
      destruct (vcr_complete_implies_valid _ _ _ Hd) as ((u & Hdu) & Hl & Hh). exists out, u. auto.
    - assert (Hne : e <> EEof) by (intros ->; discriminate).
      destruct (vcr_error_origin _ _ _ _ Hd Hne) as [->|[[-> _]|(bs & u' & Hd')]]; auto.
      destruct (drains_det _ _ _ _ _ _ _ _ _ Hsrc Hd') as (_ & <- & _). congruence.
  Qed.

  (** Stickiness: once a read has reported an error (io.EOF included) every
      later read reports the same error and no data. *)
  Theorem vcr_sticky st c e st' :
    vrd st = ((c, e), st') -> e <> ENone ->
    c = [] /\ vrd st' = (([], e), st').
  Proof.
    intros Hr Hne. destruct (err_none_or (v_err st)) as [Herr|Herr].
    - destruct (vcr_read_did _ _ _ _ _ _ _ _ _ Hr Herr) as (Hce & _). destruct (Hce Hne) as (-> & <-).
      split; [reflexivity|exact (vcr_read_failed st' Hne)].
    - rewrite (vcr_read_failed st Herr) in Hr. injection Hr as <- <- <-. split; [reflexivity|exact (vcr_read_failed st Herr)].
  Qed.
End VcrProofs.
Arguments valid_stream H cfg {S}. Arguments cb_ok H cfg {S}. Arguments origin H cfg {S}.
