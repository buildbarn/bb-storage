(** C16N (fuel) — [16 + tree_fuel t] suffices: for every tree, every digest and
    hash function and every method whose loop parameters are positive
    ([good_param]) the model of nested error handling ([run_tree]) with at least
    that much fuel never ends in [EFuel] and never offers [EFuel] to a handler
    at any depth ([noEF] of the observed tree).  Monotone in the fuel.

    The cost of a tree: a plain buffer costs [bcost] (EHFuelLaws.v), a wrapper
    1 + its base + its answers, a replacement answer 1 + its tree, an error
    answer 1; [tree_fuel t = 4 * tcost t].  The measure of a nested reader: a
    plain reader its C16 measure, an error-handling reader 1 + its current
    reader + the answers its handler has left.  [nread]'s fuel pays 1 per level
    on the way down and 1 per replacement. *)
From Coq Require Import List ZArith NArith Bool Lia.
From BBS Require Import Buffer.Source Buffer.Validate Buffer.Convert Buffer.ValidateProofs
  Buffer.C09FuelLoops Buffer.C09FuelSuffices Buffer.EHFuelLaws Buffer.EHFuelSuffices Buffer.EHNest
  Buffer.EHNestStep Run.R16N.
Import ListNotations.
Open Scope nat_scope.

Fixpoint tcost (t : nbuf) : nat :=
  match t with
  | NB b => bcost b
  | NW inner ans => S (tcost inner + acostN ans)
  end
with acostN (a : nanss) : nat :=
  match a with
  | ANil => 0
  | ARep b r => S (tcost b + acostN r)
  | AFail _ r => S (acostN r)
  end.

Lemma tree_fuel_tcost : (forall t, tree_fuel t = 4 * tcost t) /\ (forall a, ans_fuelN a = 4 * acostN a).
Proof.
  apply nbuf_nanss_ind; cbn [tree_fuel ans_fuelN tcost acostN]; intros; rewrite ?buf_fuel_bcost; lia.
Qed.
Lemma tcost_pos t : 1 <= tcost t.
Proof. destruct t; cbn [tcost]; [apply bcost_pos|lia]. Qed.

(** * Observed trees without an out-of-fuel offer *)
Definition nef (e : err) : bool := negb (err_eqb e EFuel).
Fixpoint noEF (o : otree) : bool :=
  match o with
  | OLeaf _ => true
  | ONode offs _ kids => forallb nef offs && forallb noEF kids
  end.
Lemma nef_true e : e <> EFuel -> nef e = true.
Proof. destruct e; cbn; congruence. Qed.
Lemma forallb_snoc {A} (f : A -> bool) l x : forallb f l = true -> f x = true -> forallb f (l ++ [x]) = true.
Proof. intros A1 A2. rewrite forallb_app, A1. cbn. rewrite A2. reflexivity. Qed.

Definition hclean (h : hnd) : Prop := forallb nef (hn_off h) = true /\ forallb noEF (hn_dead h) = true.
Lemma hclean_offered h e rest : hclean h -> e <> EFuel -> hclean (hn_offered h e rest).
Proof. intros (Ho & Hd) He. split; [apply forallb_snoc; [exact Ho|apply nef_true; exact He]|exact Hd]. Qed.
Lemma hclean_retire h o : hclean h -> noEF o = true -> hclean (hn_retire h o).
Proof. intros (Ho & Hd) Hn. split; [exact Ho|apply forallb_snoc; assumption]. Qed.
Lemma said_acost a c r : said a c r -> acostN r <= acostN a.
Proof. destruct 1; cbn [acostN]; lia. Qed.

Fixpoint Incr (fuel : nat) (r : ncr) : Prop :=
  match r with
  | CL u => Iucr fuel u
  | CE cur _ h => Incr fuel cur /\ hclean h
  end.
Fixpoint mun (r : ncr) : nat :=
  match r with
  | CL u => mucr u
  | CE cur _ h => S (mun cur + acostN (hn_ans h))
  end.

Lemma Incr_noEF fuel : forall r, Incr fuel r -> noEF (nobs r) = true.
Proof.
  induction r as [u|cur IH off h]; cbn [Incr nobs]; [reflexivity|].
  intros (Hc & Ho & Hd). unfold hn_obs. cbn [noEF]. rewrite Ho. cbn [andb].
  apply forallb_snoc; [exact Hd|apply IH; exact Hc].
Qed.
Lemma nclose_fuel fuel : forall r, Incr fuel r -> Incr fuel (nclose r) /\ mun (nclose r) <= mun r.
Proof.
  induction r as [u|cur IH off h]; cbn [Incr nclose mun].
  - apply ucr_close_fuel.
  - intros (Hc & Hh). destruct (IH Hc) as [A B]. unfold hn_finish, hclean in *. cbn [hn_ans hn_off hn_dead].
    rsplit; auto; try tauto. lia.
Qed.
Lemma nopen_fuel fuel : forall t off, tcost t <= fuel ->
  Incr fuel (nopen fuel t off) /\ S (mun (nopen fuel t off)) <= tcost t.
Proof.
  induction t as [b|inner IH ans]; intros off Hf; cbn [nopen Incr mun tcost] in *.
  - apply ucr_open_fuel. exact Hf.
  - destruct (IH off ltac:(lia)) as [A B]. unfold hn_new, hclean. cbn [hn_ans hn_off hn_dead forallb].
    rsplit; auto. lia.
Qed.

Lemma nstep_fuel fuel max f r x r' : (1 <= max)%N -> nstep fuel max f r x r' ->
  Incr fuel r -> mun r < f -> mun r < fuel ->
  snd x <> EFuel /\ Incr fuel r' /\ mun r' <= mun r /\ (snd x = ENone -> mun r' < mun r).
Proof.
  intros Hmax.
  induction 1 as [r|f u [c e] u' Hu|f cur off h chunk cur' _ IH|f cur off h chunk cur' _ IH
                  |f cur off h chunk e cur' c rest _ IH He Hs|f cur off h chunk e cur' t rest x r' _ IH He Ha _ IH2];
    intros Hi Hm Hlt; cbn [Incr mun fst snd] in *;
    [lia| |destruct Hi as (Hc & Hh); destruct (IH Hc ltac:(lia) ltac:(lia)) as (A & B & C & D)..].
  - destruct (ucr_read_prog fuel max Hmax _ _ _ _ Hi Hu) as (A & B & C & D).
    rsplit; auto. intros X. specialize (D X). lia.
  - specialize (D eq_refl). rsplit; auto; try congruence; lia.
  - rsplit; auto; try congruence; lia.
  - pose proof (said_acost _ _ _ Hs). cbn [hn_offered hn_ans]. rsplit; auto using hclean_offered; try congruence; lia.
  - rewrite Ha in *. cbn [acostN] in *.
    destruct (nopen_fuel fuel t off ltac:(lia)) as [O1 O2]. destruct (nclose_fuel fuel _ B) as [N1 _].
    destruct IH2 as (X1 & X2 & X3 & X4); cbn [Incr mun hn_retire hn_offered hn_ans] in *; try lia.
    + split; [exact O1|]. apply hclean_retire; [apply hclean_offered; assumption|apply (Incr_noEF fuel); exact N1].
    + rsplit; auto; lia.
Qed.
Definition Jn (fuel : nat) (r : ncr) : Prop := Incr fuel r /\ mun r < fuel.
Lemma nread_prog fuel max : (1 <= max)%N -> cprog (fun _ => 0) (nread fuel fuel max) (Jn fuel) mun.
Proof.
  intros Hmax r c e r' (Hi & Hm) Hr.
  destruct (nstep_fuel _ _ _ _ _ _ Hmax (nread_nstep _ _ _ _ _ _ Hr) Hi Hm Hm) as (A & B & C & D). cbn [snd] in *.
  unfold Jn. rsplit; auto; try lia. intros X. specialize (D X). lia.
Qed.

Fixpoint Inrd (fuel : nat) (r : nrd) : Prop :=
  match r with
  | RL u => Iurd fuel u
  | RE cur _ h => Inrd fuel cur /\ hclean h
  end.
Fixpoint murn (r : nrd) : nat :=
  match r with
  | RL u => murd u
  | RE cur _ h => S (murn cur + acostN (hn_ans h))
  end.

Lemma Inrd_noEF fuel : forall r, Inrd fuel r -> noEF (nrobs r) = true.
Proof.
  induction r as [u|cur IH off h]; cbn [Inrd nrobs]; [reflexivity|].
  intros (Hc & Ho & Hd). unfold hn_obs. cbn [noEF]. rewrite Ho. cbn [andb].
  apply forallb_snoc; [exact Hd|apply IH; exact Hc].
Qed.
Lemma nrclose_fuel fuel : forall r, Inrd fuel r -> Inrd fuel (nrclose r) /\ murn (nrclose r) <= murn r.
Proof.
  induction r as [u|cur IH off h]; cbn [Inrd nrclose murn].
  - apply urd_close_fuel.
  - intros (Hc & Hh). destruct (IH Hc) as [A B]. unfold hn_finish, hclean in *. cbn [hn_ans hn_off hn_dead].
    rsplit; auto; try tauto. lia.
Qed.
Lemma nropen_fuel fuel : forall t off, tcost t <= fuel ->
  Inrd fuel (nropen fuel t off) /\ S (murn (nropen fuel t off)) <= tcost t.
Proof.
  induction t as [b|inner IH ans]; intros off Hf; cbn [nropen Inrd murn tcost] in *.
  - apply urd_open_fuel. exact Hf.
  - destruct (IH off ltac:(lia)) as [A B]. unfold hn_new, hclean. cbn [hn_ans hn_off hn_dead forallb].
    rsplit; auto. lia.
Qed.

Lemma rstep_fuel fuel cap r x r' : rstep fuel cap r x r' -> Inrd fuel r -> murn r < fuel ->
  snd x <> EFuel /\ Inrd fuel r' /\ murn r' <= murn r /\
  ((1 <= cap)%N -> snd x = ENone \/ fst x <> [] -> murn r' < murn r).
Proof.
  induction 1 as [u [c e] u' Hu|cur off h data e cur' _ IH Hq|cur off h data e cur' c rest _ IH He Hs
                  |cur off h data e cur' t rest _ IH He Ha];
    intros Hi Hlt; cbn [Inrd murn fst snd] in *; [|destruct Hi as (Hc & Hh); destruct (IH Hc ltac:(lia)) as (A & B & C & D)..].
  - exact (urd_read_prog fuel _ _ _ _ _ Hi Hu).
  - rsplit; auto; try lia. intros Hcap X. specialize (D Hcap X). lia.
  - pose proof (said_acost _ _ _ Hs). cbn [hn_offered hn_ans]. rsplit; auto using hclean_offered; try congruence; try lia.
    intros Hcap [X|X]; [congruence|]. specialize (D Hcap (or_intror X)). lia.
  - rewrite Ha in *. cbn [acostN] in *.
    destruct (nropen_fuel fuel t (off + lenN data)%N ltac:(lia)) as [O1 O2]. destruct (nrclose_fuel fuel _ B) as [N1 _].
    cbn [hn_retire hn_offered hn_ans]. rsplit; auto; try congruence; try lia.
    apply hclean_retire; [apply hclean_offered; assumption|apply (Inrd_noEF fuel); exact N1].
Qed.

Definition Jrn (fuel : nat) (r : nrd) : Prop := Inrd fuel r /\ murn r < fuel.
Lemma nrread_prog fuel : rprog (nrread fuel) (Jrn fuel) murn.
Proof.
  intros cap r c e r' (Hi & Hm) Hr.
  destruct (rstep_fuel _ _ _ _ _ (nrread_rstep _ _ _ _ _ Hr) Hi Hm) as (A & B & C & D). cbn [fst snd] in *.
  unfold Jrn. rsplit; auto; try lia.
Qed.

Section Methods.
  Variable H : bytes -> bytes.
  Variable cfg : vcfg.
  Variable fuel : nat.

  Definition wok (r : wres) : Prop := snd (fst (fst r)) <> EFuel /\ noEF (snd r) = true.

  Lemma whole_fuel m t : good_param m = true -> 4 * tcost t <= fuel -> wok (whole H cfg fuel m t).
  Proof.
    intros Hg. revert t.
    pose (Pt := fun ans r offers dead (_ : list bool) w' => 4 * acostN ans <= fuel -> wok r ->
                  forallb nef offers = true -> forallb noEF dead = true -> wok w').
    destruct (whole_try_ind H cfg fuel m (fun t w => 4 * tcost t <= fuel -> wok w) Pt) as (A & _);
      unfold Pt, wok; cbn [fst snd tcost acostN noEF].
    - intros b Hf. split; [apply plain_fuel; assumption|reflexivity].
    - intros inner ans w w' Hi Ha Hf. apply Ha; [lia|apply Hi; lia|reflexivity|reflexivity].
    - intros ans d e cb o offers dead cbs _ _ (He & Ho) Hoff Hdead. split; [exact He|].
      rewrite Hoff. apply forallb_snoc; assumption.
    - intros ans c rest d e cb o offers dead cbs _ _ _ (He & Ho) Hoff Hdead. split; [congruence|].
      rewrite (forallb_snoc _ _ _ Hoff (nef_true _ He)). apply forallb_snoc; assumption.
    - intros t rest d e cb o offers dead cbs w w' _ Ht Hrest Hf (He & Ho) Hoff Hdead.
      apply Hrest; [lia|apply Ht; lia|apply forallb_snoc; [assumption|apply nef_true; exact He]|apply forallb_snoc; assumption].
    - exact A.
  Qed.

  Lemma discard_noEF : forall t, noEF (discard_tree H cfg fuel t) = true.
  Proof. induction t as [b|inner IH ans]; cbn; [reflexivity|]. rewrite IH. reflexivity. Qed.

  Notation IV := (Iv (Jn fuel) mun fuel).
  Notation MV := (muv mun).
  Notation IR := (Iv (Jrn fuel) murn fuel).
  Notation MR := (muv murn).

  Lemma nv_read_prog max : (1 <= max)%N -> cprog (fun _ => 0) (nv_read H cfg fuel max) IV MV.
  Proof. intros Hmax. exact (vcr_read_prog _ _ _ _ H cfg fuel (nread_prog fuel max Hmax)). Qed.
  Lemma nv_close_inv s : IV s -> IV (nv_close s) /\ MV (nv_close s) <= MV s.
  Proof.
    unfold Iv, muv, nv_close, Jn. intros ((A & A') & B & C). vsimp.
    destruct (nclose_fuel fuel _ A) as [A1 A2]. rsplit; auto; lia.
  Qed.
  Lemma nv_init_inv t : 4 * tcost t <= fuel ->
    IV (vinit cfg (nopen fuel t 0%N)) /\ MV (vinit cfg (nopen fuel t 0%N)) < fuel.
  Proof.
    intros Hf. pose proof (tcost_pos t). destruct (nopen_fuel fuel t 0%N ltac:(lia)) as [A B].
    unfold Iv, muv, vinit, Jn. vsimp. rsplit; auto; try congruence; try lia.
  Qed.
  Lemma nrv_read_prog : rprog (nrv_read H cfg fuel) IR MR.
  Proof. exact (vr_read_prog _ _ _ H cfg fuel (nrread_prog fuel)). Qed.
  Lemma nrv_init_inv t : 4 * tcost t <= fuel ->
    IR (vinit cfg (nropen fuel t 0%N)) /\ MR (vinit cfg (nropen fuel t 0%N)) < fuel.
  Proof.
    intros Hf. pose proof (tcost_pos t). destruct (nropen_fuel fuel t 0%N ltac:(lia)) as [A B].
    unfold Iv, muv, vinit, Jrn. vsimp. rsplit; auto; try congruence; try lia.
  Qed.
  Lemma IV_noEF s : IV s -> noEF (nobs (v_u s)) = true.
  Proof. intros ((A & _) & _). apply (Incr_noEF fuel). exact A. Qed.

  Theorem run_tree_fuel t m : good_param m = true -> 4 * tcost t <= fuel ->
    z_err (run_tree H cfg fuel t m) <> EFuel /\ noEF (z_tree (run_tree H cfg fuel t m)) = true.
  Proof.
    intros Hg Hf. destruct t as [b|inner ans].
    - cbn [run_tree z_err z_tree noEF tcost] in *. split; [apply plain_fuel; assumption|reflexivity].
    - remember (NW inner ans) as t eqn:Et.
      assert (Hwhole : forall m', good_param m' = true -> wok (whole H cfg fuel m' t))
        by (intros m' Hg'; apply whole_fuel; assumption).
      destruct m; rewrite Et; cbn [run_tree good_param] in *; rewrite <- Et.
      + rewrite whole_out. exact (Hwhole (MToByteSlice max) eq_refl).
      + unfold into_writer_cr. destruct (nv_init_inv t Hf) as [I0 M0].
        destruct (drain _ fuel [] _) as [[out e] st] eqn:Hd. cbn [z_err z_tree].
        destruct (drain_fuel _ _ _ _ (nv_read_prog 65536%N ltac:(lia)) fuel _ _ _ _ _ I0 M0 Hd) as (A & B & C).
        split; [destruct e; congruence|]. apply IV_noEF. apply nv_close_inv. exact B.
      + rewrite whole_out. exact (Hwhole (MReadAt plen off) eq_refl).
      + apply N.leb_le in Hg.
        destruct (valid_offset (g_size cfg) off); [|cbn [z_err z_tree]; split; [congruence|apply discard_noEF]].
        destruct (nv_init_inv t Hf) as [I0 M0].
        pose proof (nv_read_prog max Hg) as PV.
        destruct (offset_init_fuel0 _ _ nv_close _ _ PV nv_close_inv fuel off _ I0 M0) as [Io0 Mo0].
        set (o0 := offset_init (nv_read H cfg fuel max) nv_close fuel off (vinit cfg (nopen fuel t 0%N))) in *.
        pose proof (offset_read_prog0 _ _ _ _ PV) as PO.
        destruct (drain (offset_read (nv_read H cfg fuel max)) fuel [] o0) as [[out e] o] eqn:Hd.
        destruct (drain_fuel _ _ _ _ PO fuel _ _ _ _ _ Io0 ltac:(lia) Hd) as (A & B & C).
        destruct (extra_reads (offset_read (nv_read H cfg fuel max)) extra o) as [ex o2] eqn:He.
        cbn [z_err z_tree].
        pose proof (extra_reads_inv _ _ _ _ PO _ _ _ _ B He) as B2.
        split; [exact A|]. apply IV_noEF.
        exact (proj1 (proj1 (offset_close_inv0 nv_close _ _ nv_close_inv _ B2))).
      + destruct (caps_good _ Hg) as [Hcaps Hlast].
        destruct (nrv_init_inv t Hf) as [I0 M0].
        destruct (rconsume _ fuel caps (last_cap caps) [] _) as [[out e] st] eqn:Hrc.
        destruct (rconsume_fuel _ _ _ nrv_read_prog fuel _ _ _ _ _ _ _ Hcaps Hlast I0 M0 Hrc) as (A & B & C).
        destruct (rextra _ extra (last_cap caps) st) as [ex st2] eqn:He.
        cbn [z_err z_tree].
        pose proof (rextra_inv _ _ _ nrv_read_prog _ _ _ _ _ B He) as B2.
        split; [exact A|]. vsimp. destruct B2 as ((B2 & _) & _).
        apply (Inrd_noEF fuel). exact (proj1 (nrclose_fuel fuel _ B2)).
      + rewrite whole_out. exact (Hwhole (MToByteSlice max) eq_refl).
      + cbn [z_err z_tree]. split; [congruence|apply discard_noEF].
  Qed.
End Methods.

(** [16 + tree_fuel t], the fuel [out16N] uses, suffices (and so does any larger fuel). *)
Theorem tree_fuel_suffices H cfg fuel t m :
  16 + tree_fuel t <= fuel -> good_param m = true ->
  z_err (run_tree H cfg fuel t m) <> EFuel /\ noEF (z_tree (run_tree H cfg fuel t m)) = true.
Proof.
  intros Hf Hg. apply run_tree_fuel; [exact Hg|]. rewrite (proj1 tree_fuel_tcost) in Hf. lia.
Qed.
