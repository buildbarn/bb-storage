(** C09 — the "otherwise" half at constructor level, for IntoWriter (the
    method through which partial data reaches the consumer): invalid content
    => error, fewer than [size] bytes written, callbacks sound.  For
    NewCASBufferFromChunkReader also the error code: the Source's code when
    the source itself ends cleanly, that code or the source's own when the
    source ends with a code. *)
From Coq Require Import List ZArith NArith Bool Lia.
From BBS Require Import Buffer.Source Buffer.Validate Buffer.Convert Buffer.StreamProofs
  Buffer.ValidateProofs Buffer.ValidateReaderProofs Buffer.ConvertProofs Buffer.ReaderBufferProofs
  Buffer.C09FullValidate Buffer.C09FullChunk Buffer.C09FullReaderBuf.
Import ListNotations.
Open Scope N_scope.

Section Otherwise.
  Variable H : bytes -> bytes.
  Variable cfg : vcfg.
  Variable fuel : nat.

  Theorem chunk_into_writer_otherwise evs o :
    cas_chunk_reader H cfg fuel evs MIntoWriter = o -> o_err o <> EFuel ->
    ((In true (o_cbs o) -> valid_script H cfg evs) /\ (In false (o_cbs o) -> ~ valid_script H cfg evs)) /\
    (~ valid_script H cfg evs ->
       o_err o <> ENone /\ (lenN (o_data o) < g_size cfg \/ o_data o = []) /\
       (snd (content evs) = EEof -> o_err o = ECode (g_code cfg)) /\
       (forall c, snd (content evs) = ECode c -> o_err o = ECode c \/ o_err o = ECode (g_code cfg))).
  Proof.
    intros Ho Hnf. split; [rewrite <- Ho; apply chunk_callbacks_sound|]. intros Hnv.
    destruct (chunk_otherwise H cfg fuel evs MIntoWriter o ltac:(discriminate) Ho Hnf Hnv eq_refl) as (He & Hd & _).
    rewrite He. rsplit.
    - exact (proj1 (expected_not_done cfg evs)).
    - destruct Hd as [Hd|Hd]; [right; exact Hd|left; exact Hd].
    - intros Ht. rewrite Ht. apply expected_err_clean_end.
    - intros c Hc. rewrite Hc. unfold expected_err. destruct (g_size cfg <? lenN (fst (content evs))); auto.
  Qed.

  Theorem reader_into_writer_otherwise evs attach o :
    cas_reader H cfg fuel evs attach MIntoWriter = o -> o_err o <> EFuel ->
    ((In true (o_cbs o) -> valid_script H cfg evs) /\ (In false (o_cbs o) -> ~ valid_script H cfg evs)) /\
    (~ valid_script H cfg evs ->
       o_err o <> ENone /\ (lenN (o_data o) < g_size cfg \/ o_data o = [])).
  Proof.
    intros Ho Hnf. split; [rewrite <- Ho; apply reader_callbacks_sound|]. intros Hnv.
    destruct (reader_otherwise H cfg fuel evs attach MIntoWriter o ltac:(discriminate) Ho Hnf Hnv eq_refl) as (He & Hd & _).
    rewrite He. split; [exact (proj1 (expected_not_done cfg evs))|].
    destruct Hd as [Hd|Hd]; [right; exact Hd|left; exact Hd].
  Qed.
End Otherwise.
