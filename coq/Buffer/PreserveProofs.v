(** C16 — what the validators, decorators and consumers built on top of a
    reader do to its state: a two-state invariant (a reader that may still be
    read / one that has returned an error and is left alone), read off what one
    Read of a validating reader asks of the reader underneath ([vcr_read_did],
    Buffer/ValidateProofs.v; [vr_read_did], Buffer/ValidateReaderProofs.v), and,
    as its one-state case, any property that every read preserves (used for:
    reading never reports Done to the error handler). *)
From Coq Require Import List ZArith NArith Bool Lia.
From BBS Require Import Buffer.Source Buffer.Validate Buffer.Convert Buffer.StreamProofs Buffer.ValidateProofs.
From BBS Require Export Buffer.ValidateReaderProofs.
Import ListNotations.
Open Scope N_scope.

Definition ok_err (e : err) : Prop := e = ENone \/ e = EEof.

(** * Through the validating readers: once the underlying reader has returned an
    error it is not read again, because the error sticks.  [Q e s']: what a read
    that returns [e] leaves of a reader that may still be read. *)
Section AfterChunk.
  Variable S : Type.
  Variable rd : S -> (bytes * err) * S.
  Variable Live : S -> Prop.
  Variable Q : err -> S -> Prop.
  Hypothesis step : forall s c e s', Live s -> rd s = ((c, e), s') -> Q e s'.
  Hypothesis live : forall s, Q ENone s -> Live s.

  Lemma ran_after u bs ot u' : ran S rd u bs ot u' -> Live u ->
    match ot with None => Live u' | Some t => t <> ENone /\ Q t u' end.
  Proof.
    destruct ot as [t|]; cbn [ran].
    - induction 1 as [s c e s' Hr Hne|s c s' bs e s'' Hr _ IH]; intros Hl.
      + split; [exact Hne|exact (step _ _ _ _ Hl Hr)].
      + apply IH, live. exact (step _ _ _ _ Hl Hr).
    - induction 1 as [s|s c s' bs s'' Hr _ IH]; intros Hl; [exact Hl|].
      apply IH, live. exact (step _ _ _ _ Hl Hr).
  Qed.
End AfterChunk.

Section StickyChunk.
  Variable S : Type.
  Variable rd : S -> (bytes * err) * S.
  Variables Live Dead : S -> Prop.
  Hypothesis live_dead_s : forall s, Live s -> Dead s.
  Hypothesis step : forall s c e s', Live s -> rd s = ((c, e), s') -> (e = ENone -> Live s') /\ Dead s'.
  Variable H : bytes -> bytes.
  Variable cfg : vcfg.

  Lemma vcr_read_keeps f st r st' : vcr_read H cfg rd f st = (r, st') ->
    (v_err st = ENone -> Live (v_u st)) /\ Dead (v_u st) -> (v_err st' = ENone -> Live (v_u st')) /\ Dead (v_u st').
  Proof.
    destruct r as [c e]. intros Hr [Hl Hd]. destruct (err_none_or (v_err st)) as [Eerr|Hne].
    2:{ rewrite (vcr_read_failed H cfg S rd f st Hne) in Hr. inj Hr. split; assumption. }
    destruct (vcr_read_did _ _ _ _ _ _ _ _ _ Hr Eerr) as (_ & _ & r & ot & Hran & Hot).
    pose proof (ran_after _ rd Live _ step (fun s q => proj1 q eq_refl) _ _ _ _ Hran (Hl Eerr)) as Ha.
    destruct ot as [t|]; [|split; [intros _; exact Ha|apply live_dead_s; exact Ha]].
    (* a stream underneath that has ended leaves an error in the validator *)
    destruct Ha as (Hn & _ & Hd'). split; [|exact Hd']. intros E. rewrite E in Hot. destruct Hot as ([Ht|(_ & Ht)] & _); congruence.
  Qed.
End StickyChunk.

Section TwoStateChunk.
  Variable S : Type.
  Variable rd : S -> (bytes * err) * S.
  Variables Live Dead : S -> Prop.
  Hypothesis live_dead_s : forall s, Live s -> Dead s.
  Hypothesis step : forall s c e s', rd s = ((c, e), s') -> Live s -> Dead s' /\ (ok_err e -> Live s').
  Variable H : bytes -> bytes.
  Variable cfg : vcfg.

  Definition vinv (st : vst S) : Prop := Dead (v_u st) /\ (v_err st = ENone -> Live (v_u st)).

  Lemma vcr_read_two f st r st' : vcr_read H cfg rd f st = (r, st') -> vinv st -> vinv st'.
  Proof using live_dead_s step.
    intros Hr [Hd Hl]. apply and_comm. refine (vcr_read_keeps _ rd Live Dead live_dead_s _ H cfg f st r st' Hr (conj Hl Hd)).
    intros s c e s' Hs Hrd. destruct (step _ _ _ _ Hrd Hs) as [A B]. split; [intros ->; apply B; left; reflexivity|exact A].
  Qed.
End TwoStateChunk.

Section AfterReader.
  Variable S : Type.
  Variable rd : N -> S -> (bytes * err) * S.
  Variable Live : S -> Prop.
  Variable Q : err -> S -> Prop.
  Hypothesis step : forall cap s c e s', Live s -> rd cap s = ((c, e), s') -> Q e s'.
  Hypothesis live : forall s, Q ENone s -> Live s.

  Lemma rran_after u bs ot u' : rran S rd u bs ot u' -> Live u ->
    match ot with None => Live u' | Some t => t <> ENone /\ Q t u' end.
  Proof.
    destruct ot as [t|]; cbn [rran].
    - induction 1 as [cap s c e s' Hr Hne|cap s c s' bs e s'' Hr _ IH]; intros Hl.
      + split; [exact Hne|exact (step _ _ _ _ _ Hl Hr)].
      + apply IH, live. exact (step _ _ _ _ _ Hl Hr).
    - induction 1 as [s|cap s c s' bs s'' Hr _ IH]; intros Hl; [exact Hl|].
      apply IH, live. exact (step _ _ _ _ _ Hl Hr).
  Qed.
End AfterReader.

Section StickyReader.
  Variable S : Type.
  Variable rd : N -> S -> (bytes * err) * S.
  Variables Live Dead : S -> Prop.
  Hypothesis live_dead_s : forall s, Live s -> Dead s.
  Hypothesis step : forall cap s c e s', Live s -> rd cap s = ((c, e), s') -> (e = ENone -> Live s') /\ Dead s'.
  Variable H : bytes -> bytes.
  Variable cfg : vcfg.

  Lemma rran_keeps u bs ot u' : rran S rd u bs ot u' -> Live u -> (ot = None -> Live u') /\ Dead u'.
  Proof.
    intros Hx Hl. pose proof (rran_after _ rd Live _ step (fun s q => proj1 q eq_refl) _ _ _ _ Hx Hl) as Ha.
    destruct ot as [t|]; [split; [discriminate|exact (proj2 (proj2 Ha))]|split; [intros _; exact Ha|apply live_dead_s; exact Ha]].
  Qed.

  Lemma read_full_loop_keeps fuel want got s r s' : read_full_loop rd fuel want got s = (r, s') -> Live s -> Dead s'.
  Proof.
    destruct r as [res fe]. intros Hd Hp. destruct (read_full_trace _ _ _ _ _ _ _ _ _ Hd) as (d & ot & _ & Hx & _).
    exact (proj2 (rran_keeps _ _ _ _ Hx Hp)).
  Qed.

  Lemma vr_read_keeps f cap st r st' : vr_read H cfg rd f cap st = (r, st') ->
    (v_err st = ENone -> Live (v_u st)) /\ Dead (v_u st) -> (v_err st' = ENone -> Live (v_u st')) /\ Dead (v_u st').
  Proof.
    destruct r as [c e]. intros Hr [Hl Hd]. destruct (err_none_or (v_err st)) as [Eerr|Hne].
    2:{ rewrite (vr_read_failed H cfg S rd f cap st Hne) in Hr. inj Hr. split; assumption. }
    destruct (vr_read_did _ _ _ _ _ _ _ _ _ _ Hr Eerr) as (He & r & ot & Hran & Hot).
    destruct (rran_keeps _ _ _ _ Hran (Hl Eerr)) as [Hl' Hd']. split; [|exact Hd'].
    intros E. apply Hl'. destruct ot as [t|]; [|reflexivity]. exfalso. rewrite He in E. subst e.
    pose proof (rdrains_failed _ _ _ _ _ _ Hran) as Hn.
    destruct Hot as [(_ & [(<- & _)|[(_ & ?)|(? & _)]])|(? & _)]; congruence.
  Qed.
End StickyReader.

Section TwoStateReader.
  Variable S : Type.
  Variable rd : N -> S -> (bytes * err) * S.
  Variables Live Dead : S -> Prop.
  Hypothesis live_dead_s : forall s, Live s -> Dead s.
  Hypothesis step : forall cap s c e s', rd cap s = ((c, e), s') -> Live s -> Dead s' /\ (ok_err e -> Live s').
  Variable H : bytes -> bytes.
  Variable cfg : vcfg.

  Lemma vr_read_two f cap st r st' : vr_read H cfg rd f cap st = (r, st') -> vinv _ Live Dead st -> vinv _ Live Dead st'.
  Proof using live_dead_s step.
    intros Hr [Hd Hl]. apply and_comm. refine (vr_read_keeps _ rd Live Dead live_dead_s _ H cfg f cap st r st' Hr (conj Hl Hd)).
    intros cap0 s c e s' Hs Hrd. destruct (step _ _ _ _ _ Hrd Hs) as [A B]. split; [intros ->; apply B; left; reflexivity|exact A].
  Qed.
End TwoStateReader.

Section OverChunk.
  Variable S : Type.
  Variable rd : S -> (bytes * err) * S.
  Variable P : S -> Prop.
  Hypothesis rd_pres : forall s r s', rd s = (r, s') -> P s -> P s'.

  Lemma drain_pres fuel : forall out s r s', drain rd fuel out s = (r, s') -> P s -> P s'.
  Proof.
    induction fuel as [|f IH]; intros out s r s' Hd Hp; cbn in Hd; [inv Hd; assumption|].
    destruct (rd s) as [[c e] s1] eqn:Hr. apply rd_pres in Hr; [|assumption].
    destruct e; try (inv Hd; assumption). eapply IH; eassumption.
  Qed.
  Lemma extra_reads_pres k : forall s l s', extra_reads rd k s = (l, s') -> P s -> P s'.
  Proof.
    induction k as [|k IH]; intros s l s' He Hp; cbn in He; [inv He; assumption|].
    destruct (rd s) as [r s1] eqn:Hr. apply rd_pres in Hr; [|assumption].
    destruct (extra_reads rd k s1) as [l' s2] eqn:He2. inv He. eapply IH; eassumption.
  Qed.
  Lemma discard_pres fuel : forall off s r s',
    discard_from_chunk_reader rd fuel off s = (r, s') -> P s -> P s'.
  Proof.
    induction fuel as [|f IH]; intros off s r s' Hd Hp; cbn in Hd; destruct (off =? 0);
      try (inv Hd; assumption).
    destruct (rd s) as [[c e] s1] eqn:Hr. apply rd_pres in Hr; [|assumption].
    destruct e; try (inv Hd; assumption).
    destruct (off <? lenN c); [inv Hd; assumption|]. eapply IH; eassumption.
  Qed.

  Variable H : bytes -> bytes.
  Variable cfg : vcfg.
  Lemma vcr_read_pres f st r st' :
    vcr_read H cfg rd f st = (r, st') -> P (v_u st) -> P (v_u st').
  Proof.
    intros Hr Hp.
    refine (proj1 (vcr_read_two _ rd P P (fun _ p => p) _ H cfg f st r st' Hr (conj Hp (fun _ => Hp)))).
    intros s c e s' Hs Hq. pose proof (rd_pres _ _ _ Hs Hq). auto.
  Qed.
End OverChunk.

Section OverReaderP.
  Variable S : Type.
  Variable rd : N -> S -> (bytes * err) * S.
  Variable P : S -> Prop.
  Hypothesis rd_pres : forall cap s r s', rd cap s = (r, s') -> P s -> P s'.

  Lemma read_full_loop_pres fuel : forall want got s r s',
    read_full_loop rd fuel want got s = (r, s') -> P s -> P s'.
  Proof.
    intros want got s0 r s1. apply (read_full_loop_keeps _ rd P P (fun _ p => p)).
    intros cap s c e s' Hq Hs. pose proof (rd_pres _ _ _ _ Hs Hq). auto.
  Qed.
  Lemma rconsume_pres fuel : forall caps lc out s r s', rconsume rd fuel caps lc out s = (r, s') -> P s -> P s'.
  Proof.
    induction fuel as [|f IH]; intros caps lc out s r s' Hd Hp; cbn in Hd; [inv Hd; assumption|].
    destruct (rd (hd lc caps) s) as [[c e] s1] eqn:Hr. apply rd_pres in Hr; [|assumption].
    destruct e; try (inv Hd; assumption). eapply IH; eassumption.
  Qed.
  Lemma rextra_pres k : forall cap s l s', rextra rd k cap s = (l, s') -> P s -> P s'.
  Proof.
    induction k as [|k IH]; intros cap s l s' He Hp; cbn in He; [inv He; assumption|].
    destruct (rd cap s) as [r s1] eqn:Hr. apply rd_pres in Hr; [|assumption].
    destruct (rextra rd k cap s1) as [l' s2] eqn:He2. inv He. eapply IH; eassumption.
  Qed.

  Variable H : bytes -> bytes.
  Variable cfg : vcfg.
  Lemma vr_read_pres f cap st r st' :
    vr_read H cfg rd f cap st = (r, st') -> P (v_u st) -> P (v_u st').
  Proof.
    intros Hr Hp.
    refine (proj1 (vr_read_two _ rd P P (fun _ p => p) _ H cfg f cap st r st' Hr (conj Hp (fun _ => Hp)))).
    intros cap0 s c e s' Hs Hq. pose proof (rd_pres _ _ _ _ Hs Hq). auto.
  Qed.
End OverReaderP.
