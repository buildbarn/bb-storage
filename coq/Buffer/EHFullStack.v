(** C16 — no duplicated and no skipped range for STACKS of error handlers of
    any depth ([run_stack]): when the original buffer and every replacement
    that ANY level supplies carry the same object [C], a call / stream that
    completes has handed the consumer exactly the expected slice of [C], for
    every method, buffer kind, failure position and fuel.

    The nested error-handling readers satisfy the carrier law themselves: the
    current underlying reader carries C[off..], an error is escalated through
    the active levels, a replacement supplied by any of them is opened at the
    delivered offset [off] and carries C[off..] again. *)
From Coq Require Import List ZArith NArith Bool Lia.
From BBS Require Import Buffer.Source Buffer.Validate Buffer.Convert Buffer.ErrHandler
  Buffer.StreamProofs Buffer.ValidateProofs Buffer.ValidateReaderProofs Buffer.ConvertProofs
  Buffer.ReaderBufferProofs Buffer.ErrHandlerProofs Buffer.EHFullCarry Buffer.EHFullReader
  Buffer.EHFullMethods.
Import ListNotations.
Open Scope N_scope.

(** * The unvalidated io.Readers never say io.ErrUnexpectedEOF *)
Definition urd_nu (u : urd) : Prop :=
  match u with
  | RCb c => o_fixed (cb_u c) <> EUnexp
  | RErr e | RFail e _ => e <> EUnexp
  | _ => True
  end.

Lemma discard_cr_nu fuel : forall off s p e s',
  discard_from_chunk_reader csrc_read fuel off s = ((p, e), s') -> e <> EUnexp.
Proof.
  induction fuel as [|f IH]; intros off s p e s' Hd; cbn [discard_from_chunk_reader] in Hd;
    destruct (off =? 0); try (inv Hd; congruence).
  destruct (csrc_read s) as [[c e0] s1] eqn:Hr. pose proof (csrc_no_unexp _ _ _ _ Hr) as Hn.
  destruct e0; try (inv Hd; congruence).
  destruct (off <? lenN c); [inv Hd; congruence|]. eapply IH; eassumption.
Qed.
Lemma offset_init_nu fuel off s : o_fixed (offset_init csrc_read csrc_close fuel off s) <> EUnexp.
Proof.
  unfold offset_init. destruct (off <? 0)%Z; [cbn; congruence|].
  destruct (discard_from_chunk_reader csrc_read fuel (Z.to_N off) s) as [[p e] s'] eqn:Hd.
  pose proof (discard_cr_nu _ _ _ _ _ _ Hd) as Hn. destruct e; cbn; congruence.
Qed.
Lemma offset_read_nu o c e o' :
  offset_read csrc_read o = ((c, e), o') -> o_fixed o <> EUnexp -> e <> EUnexp /\ o_fixed o' <> EUnexp.
Proof.
  unfold offset_read. intros Hr Hn. destruct (o_fixed o) eqn:Ef; try (inv Hr; rewrite Ef; split; congruence).
  destruct (is_nil (o_prefix o)); [|inv Hr; cbn; split; congruence].
  destruct (csrc_read (o_u o)) as [[c0 e0] u'] eqn:Hc. inv Hr. cbn.
  split; [exact (csrc_no_unexp _ _ _ _ Hc)|congruence].
Qed.
Lemma cb_loop_nu : forall f left got st res e st',
  cb_loop (offset_read csrc_read) f left got st = ((res, e), st') -> o_fixed (cb_u st) <> EUnexp ->
  e <> EUnexp /\ o_fixed (cb_u st') <> EUnexp.
Proof.
  induction f as [|f IH]; intros left got st res e st' Hr Hn; cbn [cb_loop] in Hr;
    destruct (left =? 0); try (inv Hr; split; [congruence|assumption]).
  destruct (offset_read csrc_read (cb_u st)) as [[c e0] u'] eqn:Ho.
  destruct (offset_read_nu _ _ _ _ Ho Hn) as (He0 & Hn').
  destruct e0; try (inv Hr; cbn; split; [congruence|assumption]).
  eapply IH; [eassumption|exact Hn'].
Qed.
Lemma copy_n_nu : forall f left s e s', copy_n_loop rsrc_read f left s = (e, s') -> e <> EUnexp.
Proof.
  induction f as [|f IH]; intros left s e s' Hr; cbn [copy_n_loop] in Hr;
    destruct (left =? 0); try (inv Hr; congruence).
  destruct (rsrc_read (N.min discard_buf left) s) as [[c e0] s1] eqn:Hrd.
  pose proof (rsrc_no_unexp _ _ _ _ _ Hrd) as Hn.
  destruct e0; try (eapply IH; eassumption); destruct (left - lenN c =? 0); inv Hr; congruence.
Qed.

Lemma urd_open_nu fuel b k : urd_nu (urd_open fuel b k).
Proof.
  destruct b as [evs|evs a|d|x]; cbn [urd_open].
  - cbn. apply offset_init_nu.
  - unfold discard_from_reader. destruct (Z.of_N k <? 0)%Z; [cbn; congruence|].
    destruct (copy_n_loop rsrc_read fuel (Z.to_N (Z.of_N k)) (mkRsrc evs a 0)) as [e s] eqn:Hc.
    pose proof (copy_n_nu _ _ _ _ _ Hc) as Hn. destruct e; cbn; first [exact Logic.I|congruence].
  - destruct (k <=? lenN d); cbn; first [exact Logic.I|congruence|intros X; discriminate X].
  - cbn. congruence.
Qed.
Lemma urd_read_nu fuel cap u c e u' :
  urd_read fuel cap u = ((c, e), u') -> urd_nu u -> e <> EUnexp /\ urd_nu u'.
Proof.
  intros Hr Hn. destruct u as [cb|s|d|x|x s]; cbn [urd_read urd_nu] in *.
  - destruct (cb_read (offset_read csrc_read) fuel cap cb) as [[c0 e0] cb'] eqn:Hc. inv Hr. cbn.
    unfold cb_read in Hc. eapply cb_loop_nu; [exact Hc|exact Hn].
  - destruct (rsrc_read cap s) as [[c0 e0] s1] eqn:Hc. inv Hr. split; [exact (rsrc_no_unexp _ _ _ _ _ Hc)|exact Logic.I].
  - unfold bb_read in Hr. destruct (is_nil d); [destruct (cap =? 0)|]; inv Hr; split; cbn; congruence.
  - inv Hr. auto.
  - inv Hr. auto.
Qed.

Section StackCarry.
  Variable C : bytes.

  Definition h_carry (h : hst) : Prop := Forall (ans_carries C) (h_answers h).
  Definition hs_carry (hs : list hst) : Prop := Forall h_carry hs.

  Lemma escalate_carry : forall act e ob e' passed act',
    escalate e act = ((ob, e'), passed, act') -> hs_carry act ->
    hs_carry passed /\ hs_carry act' /\
    match ob with Some b => carries_full C b | None => e' = e \/ exists c, e' = ECode c end.
  Proof.
    intros act e ob e' passed act' He Hc.
    destruct (escalate_ok (carries_full C) _ _ _ _ _ _ He Hc) as (Hp & Ha & Hob). rsplit; auto.
    destruct ob; [exact Hob|exact (proj2 (escalate_failed _ _ _ _ _ He))].
  Qed.

  Definition I_sch (Crem : bytes) (r : sch) : Prop :=
    I_ucr Crem (sc_cur r) /\ Crem = dropN (sc_off r) C /\ sc_off r <= lenN C /\ hs_carry (w_act (sc_w r)).

  Lemma sch_claw ifuel max : forall fuel, claw (sch_read ifuel fuel max) I_sch.
  Proof.
    induction fuel as [|f IH]; intros r c e r' Crem Hr (Hi & HC & Hoff & Hh).
    - inv Hr. eexists. rsplit; [reflexivity|..]; congruence.
    - destruct (ucr_read ifuel max (sc_cur r)) as [[chunk e0] cur'] eqn:Hu.
      destruct (ucr_claw ifuel max _ _ _ _ _ Hu Hi) as (C' & E & Hn & He & Hc).
      destruct (op_done e0) eqn:Hop.
      + cbn [sch_read] in Hr. rewrite Hu in Hr. destruct e0; try discriminate Hop; inv Hr.
        * exists C'. rsplit; auto; try congruence. intros _. unfold I_sch. cbn [sc_cur sc_off sc_w].
          destruct (piece_arith _ _ _ _ Hoff E) as (A & B & _).
          rsplit; auto. rewrite E in B. apply app_inv_head in B. exact B.
        * rewrite (Hc ltac:(congruence)) in E. exists C'. rsplit; auto; congruence.
      + rewrite (sch_read_io _ _ _ _ _ _ _ Hu Hop) in Hr.
        destruct (escalate e0 (w_act (sc_w r))) as [[[ob e'] passed] act'] eqn:Hesc.
        destruct (escalate_carry _ _ _ _ _ _ Hesc Hh) as (Hp & Ha & Hob).
        destruct ob as [b|].
        * apply (IH _ _ _ _ _ Hr). unfold I_sch. cbn [sc_cur sc_off sc_w after_replace w_act].
          rsplit; auto. rewrite HC. apply ucr_open_carries; assumption.
        * inv Hr. exists (dropN (sc_off r) C). rsplit; auto;
            intros ->; destruct Hob as [<-|(c0 & ?)]; discriminate.
  Qed.

  Definition I_shr (Crem : bytes) (r : shr) : Prop :=
    I_urd Crem (sr_cur r) /\ Crem = dropN (sr_off r) C /\ sr_off r <= lenN C /\ hs_carry (w_act (sr_w r)).

  Lemma shr_rlaw fuel : rlaw (shr_read fuel) I_shr.
  Proof.
    intros cap r c e r' Crem Hr (Hi & HC & Hoff & Hh).
    destruct (urd_read fuel cap (sr_cur r)) as [[data e0] cur'] eqn:Hu.
    destruct (urd_rlaw fuel _ _ _ _ _ _ Hu Hi) as (C' & E & Hn & He).
    destruct (piece_arith _ _ _ _ Hoff ltac:(rewrite <- HC; exact E)) as (A & B & _).
    assert (HC' : C' = dropN (sr_off r + lenN data) C).
    { rewrite <- HC, E in B. apply app_inv_head in B. exact B. }
    destruct (op_done e0) eqn:Hop.
    - rewrite (shr_read_done _ _ _ _ _ _ Hu Hop) in Hr. injection Hr as <- <- <-. exists C'. rsplit; auto.
      intros E0. unfold I_shr. cbn [sr_cur sr_off sr_w]. rsplit; auto.
    - rewrite (shr_read_io _ _ _ _ _ _ Hu Hop) in Hr.
      destruct (escalate e0 (w_act (sr_w r))) as [[[ob e'] passed] act'] eqn:Hesc.
      destruct (escalate_carry _ _ _ _ _ _ Hesc Hh) as (Hp & Ha & Hob).
      destruct ob as [b|]; injection Hr as <- <- <-; exists C'; rsplit; auto; try congruence.
      + intros _. unfold I_shr. cbn [sr_cur sr_off sr_w after_replace w_act]. rsplit; auto.
        rewrite HC'. apply urd_open_carries; assumption.
      + intros ->. destruct Hob as [<-|(c0 & ?)]; discriminate.
      + intros ->. destruct Hob as [<-|(c0 & ?)]; discriminate.
  Qed.

  Lemma shr_read_nu fuel cap r c e r' :
    urd_nu (sr_cur r) -> shr_read fuel cap r = ((c, e), r') -> e <> EUnexp /\ (e = ENone -> urd_nu (sr_cur r')).
  Proof.
    intros Hn Hr. destruct (urd_read fuel cap (sr_cur r)) as [[data e0] cur'] eqn:Hu.
    destruct (urd_read_nu _ _ _ _ _ _ Hu Hn) as (He0 & Hn'). destruct (op_done e0) eqn:Hop.
    - rewrite (shr_read_done _ _ _ _ _ _ Hu Hop) in Hr. inv Hr. auto.
    - rewrite (shr_read_io _ _ _ _ _ _ Hu Hop) in Hr.
      destruct (escalate e0 (w_act (sr_w r))) as [[[ob e'] passed] act'] eqn:He.
      destruct ob as [b|]; inv Hr.
      + split; [congruence|intros _; cbn; apply urd_open_nu].
      + destruct (escalate_failed _ _ _ _ _ He) as (_ & [->|(c0 & ->)]); split; auto; congruence.
  Qed.
End StackCarry.

Section StackMethods.
  Variable H : bytes -> bytes.
  Variable cfg : vcfg.
  Variable fuel : nat.
  Variable C : bytes.

  Lemma sch_init_carries b w : carries_full C b -> hs_carry C (w_act w) -> I_sch C C (sch_init fuel b w).
  Proof.
    intros Hc Hh. unfold I_sch, sch_init. cbn [sc_cur sc_off sc_w]. rewrite dropN_0. rsplit; auto; [|lia].
    rewrite <- (dropN_0 C) at 1. apply ucr_open_carries; [assumption|lia].
  Qed.
  Lemma shr_init_carries b w : carries_full C b -> hs_carry C (w_act w) -> I_shr C C (shr_init fuel b w).
  Proof.
    intros Hc Hh. unfold I_shr, shr_init. cbn [sr_cur sr_off sr_w]. rewrite dropN_0. rsplit; auto; [|lia].
    rewrite <- (dropN_0 C) at 1. apply urd_open_carries; [assumption|lia].
  Qed.

  Lemma shv_complete_is_object max b w out st' :
    carries_full C b -> hs_carry C (w_act w) ->
    drains (shv_read H cfg fuel max) (vinit cfg (sch_init fuel b w)) out EEof st' -> out = C.
  Proof.
    intros Hc Hh Hd. unfold shv_read in Hd.
    destruct (vcr_complete_implies_valid _ _ _ _ _ _ _ _ Hd) as ((u & Hdu) & _).
    destruct (claw_drains _ _ _ (sch_claw C fuel max fuel) _ _ _ _ Hdu _ (sch_init_carries _ _ Hc Hh)) as (C' & E & He).
    rewrite (He eq_refl), app_nil_r in E. auto.
  Qed.

  Lemma shrv_complete_is_object b w out st' :
    carries_full C b -> hs_carry C (w_act w) ->
    rdrains (shrv_read H cfg fuel) (vinit cfg (shr_init fuel b w)) out EEof st' -> out = C.
  Proof.
    intros Hc Hh Hd. unfold shrv_read in Hd.
    destruct (vr_complete_under_init H cfg _ (shr_read fuel) fuel (fun s => urd_nu (sr_cur s)) (shr_read_nu fuel) (shr_init fuel b w) _ _
                (urd_open_nu fuel b 0) Hd) as (Hu & _).
    destruct (rlaw_rdrains _ _ _ (shr_rlaw C fuel) _ _ _ _ Hu _ (shr_init_carries _ _ Hc Hh)) as (C' & E & He).
    rewrite (He eq_refl), app_nil_r in E. auto.
  Qed.

  Lemma completed_escalated m t e' :
    op_done t = false -> e' = t \/ (exists c, e' = ECode c) -> completed m e' = false.
  Proof. intros Ht [->|(c & ->)]; [destruct t; try discriminate Ht|]; destruct m; reflexivity. Qed.

  Lemma try_stack_no_dup : forall n m b w cbs d e cbs' w',
    try_stack H cfg fuel n m b w cbs = (d, e, cbs', w') -> m <> MDiscard ->
    carries_full C b -> hs_carry C (w_act w) ->
    completed m e = true -> d = expected_slice m C.
  Proof.
    induction n as [|n IH]; intros m b w cbs d e cbs' w' Ht Hm Hc Hh Hcomp;
      rewrite try_stack_eq in Ht; cbv zeta in Ht;
      (destruct (op_done (o_err (plain H cfg fuel b m))) eqn:Hop; [inv Ht; apply plain_complete; auto|]);
      destruct (escalate _ _) as [[[ob e'] passed] act'] eqn:Hesc;
      destruct (escalate_carry C _ _ _ _ _ _ Hesc Hh) as (_ & Ha & Hob); destruct ob as [b'|].
    - inv Ht. rewrite completed_fuel in Hcomp. discriminate.
    - inv Ht. rewrite (completed_escalated _ _ _ Hop Hob) in Hcomp. discriminate.
    - eapply IH; eauto.
    - inv Ht. rewrite (completed_escalated _ _ _ Hop Hob) in Hcomp. discriminate.
  Qed.

  Theorem ehs_method_no_dup b w m :
    carries_full C b -> hs_carry C (w_act w) -> m <> MDiscard ->
    completed m (y_err (ehs_method H cfg fuel b w m)) = true ->
    y_data (ehs_method H cfg fuel b w m) = expected_slice m C.
  Proof.
    intros Hc Hh Hm. destruct m; try congruence; cbn [ehs_method].
    - destruct (try_stack _ _ _ _ _ _ _ _) as [[[d e] cbs] w'] eqn:Ht. cbn [y_err y_data]. intros Hcomp.
      eapply try_stack_no_dup; eauto.
    - unfold into_writer_cr. destruct (drain _ fuel [] _) as [[out e] st] eqn:Hd. cbn [y_err y_data expected_slice].
      intros Hcomp.
      assert (He : e = EEof).
      { destruct e; try discriminate; [|reflexivity]. exfalso.
        destruct (drain_drains _ _ _ _ _ _ _ _ Hd) as (bs & _ & Hds); [congruence|].
        exact (drains_not_none _ _ _ _ _ _ Hds eq_refl). }
      subst e.
      destruct (drain_drains _ _ _ _ _ _ _ _ Hd) as (bs & -> & Hds); [congruence|]. cbn [app].
      eapply shv_complete_is_object; eauto.
    - destruct (try_stack _ _ _ _ _ _ _ _) as [[[d e] cbs] w'] eqn:Ht. cbn [y_err y_data]. intros Hcomp.
      eapply try_stack_no_dup; eauto.
    - destruct (valid_offset (g_size cfg) off) eqn:Hv; [|cbn; discriminate].
      destruct (drain _ fuel [] _) as [[out e] o] eqn:Hd.
      destruct (extra_reads _ extra o) as [ex o2]. cbn [y_err y_data expected_slice completed].
      intros Hcomp. destruct e; try discriminate.
      destruct (drain_drains _ _ _ _ _ _ _ _ Hd) as (bs & -> & Hds); [congruence|]. cbn [app].
      destruct (offset_complete_generic _ _ _ _ _ _ _ _ Hds) as (_ & full & u & Hfull & ->).
      rewrite (shv_complete_is_object _ _ _ _ _ Hc Hh Hfull). reflexivity.
    - destruct (rconsume _ fuel caps _ [] _) as [[out e] st] eqn:Hr.
      destruct (rextra _ extra _ st) as [ex st2]. cbn [y_err y_data expected_slice completed].
      intros Hcomp. destruct e; try discriminate.
      destruct (rconsume_rdrains _ _ _ _ _ _ _ _ _ _ Hr) as (bs & -> & Hds); [congruence|]. cbn [app].
      eapply shrv_complete_is_object; eauto.
    - destruct (try_stack _ _ _ _ _ _ _ _) as [[[d e] cbs] w'] eqn:Ht.
      destruct e; cbn [y_err y_data completed is_none expected_slice]; try discriminate. intros _.
      change C with (expected_slice (MToByteSlice max) C).
      eapply try_stack_no_dup; eauto. congruence.
  Qed.

  Lemma stack_handlers_carry : forall hs b w b' w',
    stack_handlers b w hs = (b', w') -> carries_full C b -> hs_carry C (w_act w) -> hs_carry C hs ->
    carries_full C b' /\ hs_carry C (w_act w').
  Proof.
    exact (stack_handlers_ok (carries_full C) (fun _ => I)).
  Qed.

  Theorem run_stack_no_dup_no_skip b0 anss m :
    carries_full C b0 -> Forall (Forall (ans_carries C)) anss -> m <> MDiscard ->
    completed m (y_err (run_stack H cfg fuel b0 anss m)) = true ->
    y_data (run_stack H cfg fuel b0 anss m) = expected_slice m C.
  Proof.
    intros Hc Hall Hm. unfold run_stack.
    destruct (stack_handlers b0 _ _) as [b w] eqn:Hs.
    assert (Hhs : hs_carry C (map (fun a => mkHst a []) anss)).
    { unfold hs_carry, h_carry. rewrite Forall_map. cbn. exact Hall. }
    destruct (stack_handlers_carry _ _ _ _ _ Hs Hc ltac:(constructor) Hhs) as (Hc' & Hw').
    destruct (w_act w) as [|a act] eqn:Ea.
    - cbn [y_err y_data]. apply plain_complete; assumption.
    - apply ehs_method_no_dup; try assumption. rewrite Ea. exact Hw'.
  Qed.
End StackMethods.
