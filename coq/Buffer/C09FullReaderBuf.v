(** C09 — NewCASBufferFromReader, the "otherwise" half for EVERY
    consumption method: callback verdicts sound in every case; for invalid
    content the error is [expected_err] and fewer than [size] bytes (counted
    from the method's offset) are handed out; valid content with accepted
    parameters is never rejected. *)
From Coq Require Import List ZArith NArith Bool Lia.
From BBS Require Import Buffer.Source Buffer.Validate Buffer.Convert
  Buffer.ValidateProofs Buffer.ConvertProofs Buffer.ReaderBufferProofs
  Buffer.C09FullValidate Buffer.C09FullCombinators Buffer.C09FullReader Buffer.C09FullChunk Run.R09.
Import ListNotations.
Open Scope N_scope.

Section ReaderAgree.
  Variables H1 H2 : bytes -> bytes.
  Variable cfg : vcfg.
  Variable fuel : nat.
  Variable P : rvs -> Prop.
  Hypothesis Hag : ragree P (rv_read H1 cfg fuel) (rv_read H2 cfg fuel).
  Hypothesis Hcl : forall s, P s -> P (rv_close s).

  Lemma to_byte_slice_r_agree max st : P st ->
    same P (to_byte_slice_r H1 cfg fuel max st) (to_byte_slice_r H2 cfg fuel max st).
  Proof.
    intros Hs. unfold to_byte_slice_r. destruct (max <? g_size cfg); [apply same_refl; cbn [snd]; auto|].
    destruct (0 <? g_size cfg).
    - destruct (read_full_agree _ P _ _ Hag fuel (g_size cfg) st Hs) as [E Hp]. rewrite <- E.
      destruct (read_full (rv_read H1 cfg fuel) fuel (g_size cfg) st) as [[data e] st1]. cbn [snd] in Hp.
      apply same_refl. cbn [snd]. auto.
    - destruct (Hag 0 st Hs) as [E Hp]. rewrite <- E.
      destruct (rv_read H1 cfg fuel 0 st) as [[d e] st1]. cbn [snd] in Hp.
      apply same_refl. cbn [snd]. auto.
  Qed.

  Lemma cas_reader_agree evs attach m : P (rv_init cfg evs attach) ->
    cas_reader H1 cfg fuel evs attach m = cas_reader H2 cfg fuel evs attach m /\
    exists stf, P stf /\ o_cbs (cas_reader H1 cfg fuel evs attach m) = v_cbs stf.
  Proof.
    intros H0. destruct m; cbn [cas_reader].
    - destruct (to_byte_slice_r_agree max _ H0) as [E Hp]. rewrite <- E.
      destruct (to_byte_slice_r H1 cfg fuel max (rv_init cfg evs attach)) as [[out e] st].
      split; [reflexivity|]. exists st. split; [exact Hp|reflexivity].
    - destruct (copy_agree _ P _ _ Hag fuel _ H0) as [E Hp]. rewrite <- E.
      destruct (copy (rv_read H1 cfg fuel) fuel (rv_init cfg evs attach)) as [[out e] st]. cbn [snd] in Hp.
      split; [reflexivity|]. exists (rv_close st). split; [auto|reflexivity].
    - destruct (discard_from_reader_agree _ P _ _ Hag fuel off _ H0) as [E Hp]. rewrite <- E.
      destruct (discard_from_reader (rv_read H1 cfg fuel) fuel off (rv_init cfg evs attach)) as [e0 st]. cbn [snd] in Hp.
      destruct e0; try (split; [reflexivity|]; exists (rv_close st); split; [auto|reflexivity]).
      destruct (read_full_agree _ P _ _ Hag fuel plen st Hp) as [E2 Hp2]. rewrite <- E2.
      destruct (read_full (rv_read H1 cfg fuel) fuel plen st) as [[got e] st1]. cbn [snd] in Hp2.
      destruct e; try (split; [reflexivity|]; exists (rv_close st1); split; [auto|reflexivity]).
      destruct (copy_agree _ P _ _ Hag fuel st1 Hp2) as [E3 Hp3]. rewrite <- E3.
      destruct (copy (rv_read H1 cfg fuel) fuel st1) as [[w e2] st2]. cbn [snd] in Hp3.
      destruct e2; (split; [reflexivity|]; exists (rv_close st2); split; [auto|reflexivity]).
    - destruct (valid_offset (g_size cfg) off).
      + destruct (discard_from_reader_agree _ P _ _ Hag fuel off _ H0) as [E Hp]. rewrite <- E.
        destruct (discard_from_reader (rv_read H1 cfg fuel) fuel off (rv_init cfg evs attach)) as [e0 st]. cbn [snd] in Hp.
        destruct e0; try (split; [reflexivity|]; exists (rv_close st); split; [auto|reflexivity]).
        pose proof (rb_read_agree _ P _ _ Hag fuel max) as Hagb.
        destruct (drain_agree _ _ _ _ Hagb fuel [] (mkRbst st ENone) Hp) as [E2 Hs]. rewrite <- E2.
        destruct (drain (rb_read (rv_read H1 cfg fuel) fuel max) fuel [] (mkRbst st ENone)) as [[out e] s]. cbn [snd] in Hs.
        destruct (extra_reads_agree _ _ _ _ Hagb extra s Hs) as [E3 Hs2]. rewrite <- E3.
        destruct (extra_reads (rb_read (rv_read H1 cfg fuel) fuel max) extra s) as [ex s2]. cbn [snd] in Hs2.
        split; [reflexivity|]. exists (rv_close (rb_u s2)). split; [apply Hcl; exact Hs2|reflexivity].
      + split; [reflexivity|]. exists (rv_close (rv_init cfg evs attach)). split; [auto|reflexivity].
    - destruct (rconsume_agree _ P _ _ Hag fuel caps (last_cap caps) [] _ H0) as [E Hs]. rewrite <- E.
      destruct (rconsume (rv_read H1 cfg fuel) fuel caps (last_cap caps) [] (rv_init cfg evs attach)) as [[out e] st].
      cbn [snd] in Hs.
      destruct (rextra_agree _ P _ _ Hag extra (last_cap caps) st Hs) as [E2 Hs2]. rewrite <- E2.
      destruct (rextra (rv_read H1 cfg fuel) extra (last_cap caps) st) as [ex st2]. cbn [snd] in Hs2.
      split; [reflexivity|]. exists (rv_close st2). split; [auto|reflexivity].
    - destruct (to_byte_slice_r_agree max _ H0) as [E Hp]. rewrite <- E.
      destruct (to_byte_slice_r H1 cfg fuel max (rv_init cfg evs attach)) as [r st].
      split; [reflexivity|]. exists st. split; [exact Hp|].
      unfold clone_copy_of. destruct (snd r); reflexivity.
    - split; [reflexivity|]. exists (rv_close (rv_init cfg evs attach)). split; [auto|reflexivity].
  Qed.
End ReaderAgree.

Section ReaderTheorems.
  Variable H : bytes -> bytes.
  Variable cfg : vcfg.
  Variable fuel : nat.
  Notation expected evs := (expected_err cfg (fst (content evs)) (snd (content evs))).

  Theorem reader_callbacks_sound evs attach m :
    (In true (o_cbs (cas_reader H cfg fuel evs attach m)) -> valid_script H cfg evs) /\
    (In false (o_cbs (cas_reader H cfg fuel evs attach m)) -> ~ valid_script H cfg evs).
  Proof.
    destruct (cas_reader_agree H H cfg fuel (Pr H cfg evs attach) (Pr_read H cfg fuel evs attach) (Pr_close H cfg evs attach)
                evs attach m (Pr_init H cfg evs attach)) as (_ & stf & Hp & ->).
    exact (Pr_cbs H cfg evs attach stf Hp).
  Qed.

  Theorem reader_otherwise evs attach m o :
    m <> MDiscard -> cas_reader H cfg fuel evs attach m = o -> o_err o <> EFuel ->
    ~ valid_script H cfg evs -> bad_param (g_size cfg) m = false ->
    o_err o = expected evs /\
    (o_data o = [] \/ Z.to_N (m_off m) + lenN (o_data o) < g_size cfg) /\
    (streams m = false -> o_data o = []).
  Proof.
    intros Hm Ho Hnf Hnv Hbp.
    pose proof (reader_outcome H cfg fuel _ _ _ _ Hm Ho Hnf Hbp) as Hout.
    destruct (completed m (o_err o)); [exfalso; exact (Hnv (proj1 Hout))|].
    destruct Hout as (st & out & Hi & He & Hn1 & _ & Hd).
    destruct (RInv3_invalid H cfg rsrc rcont _ _ _ Hi Hnv) as (Hb & _ & Hx).
    rsplit; [rewrite <- He; apply Hx; [exact Hn1|rewrite He; exact Hnf]| |].
    - destruct Hd as [->| ->]; [left; reflexivity|exact (partial_slice_bound _ _ _ Hb)].
    - intros Hs. destruct Hd as [->| ->]; [reflexivity|exact (partial_slice_withheld _ _ Hs)].
  Qed.

  Theorem reader_valid_completes evs attach m o :
    m <> MDiscard -> cas_reader H cfg fuel evs attach m = o -> o_err o <> EFuel ->
    valid_script H cfg evs -> bad_param (g_size cfg) m = false ->
    completed m (o_err o) = true.
  Proof.
    intros Hm Ho Hnf Hv Hbp. pose proof (reader_outcome H cfg fuel _ _ _ _ Hm Ho Hnf Hbp) as Hout.
    destruct (completed m (o_err o)); [reflexivity|exfalso].
    destruct Hout as (st & out & Hi & He & Hn1 & Hn2 & _).
    destruct (RInv3_valid H cfg rsrc rcont _ _ _ Hi Hv) as [A|[A|A]]; congruence.
  Qed.
End ReaderTheorems.
