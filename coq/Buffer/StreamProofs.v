(** C09/C16 — streams of an arbitrary ChunkReader as relations, and basic
    lemmas on the byte-list helpers. *)
From Coq Require Import List ZArith NArith Bool Lia.
From BBS Require Import Buffer.Source.
Import ListNotations.
Open Scope N_scope.

Lemma lenN_app a b : lenN (a ++ b) = lenN a + lenN b.
Proof. unfold lenN. rewrite app_length. lia. Qed.
Lemma lenN_nil : lenN [] = 0. Proof. reflexivity. Qed.
Lemma lenN_zero l : lenN l = 0 -> l = [].
Proof. destruct l; [reflexivity|]. unfold lenN. cbn. lia. Qed.
Lemma lenN_cons x l : lenN (x :: l) = 1 + lenN l.
Proof. unfold lenN. cbn [length]. lia. Qed.

Lemma bytes_eqb_eq a b : bytes_eqb a b = true <-> a = b.
Proof.
  revert b. induction a as [|x a IH]; intros [|y b]; cbn.
  - split; reflexivity.
  - split; congruence.
  - split; congruence.
  - rewrite andb_true_iff, N.eqb_eq, IH. split; [intros [-> ->]; reflexivity|intros [= -> ->]; auto].
Qed.

Lemma err_none_dec (e : err) : e = ENone \/ e <> ENone.
Proof. destruct e; [left; reflexivity|right; discriminate..]. Qed.
Lemma err_match_failed {A} (e : err) (a b : A) : e <> ENone -> match e with ENone => a | _ => b end = b.
Proof. destruct e; congruence. Qed.

Lemma is_nil_true l : is_nil l = true <-> l = [].
Proof. destruct l; cbn; split; congruence. Qed.

Lemma takeN_dropN n l : takeN n l ++ dropN n l = l.
Proof.
  revert n. induction l as [|x l IH]; intros n; cbn; [reflexivity|].
  destruct (n =? 0); [reflexivity|]. cbn. now rewrite IH.
Qed.
Lemma takeN_0 l : takeN 0 l = [].
Proof. destruct l; reflexivity. Qed.
Lemma dropN_0 l : dropN 0 l = l.
Proof. destruct l; reflexivity. Qed.
Lemma lenN_takeN n l : lenN (takeN n l) = N.min n (lenN l).
Proof.
  revert n. induction l as [|x l IH]; intros n; cbn [takeN].
  - rewrite lenN_nil. lia.
  - destruct (n =? 0) eqn:E.
    + apply N.eqb_eq in E. subst. rewrite lenN_nil. lia.
    + apply N.eqb_neq in E. rewrite !lenN_cons, IH. lia.
Qed.
Lemma takeN_all n l : lenN l <= n -> takeN n l = l.
Proof.
  revert n. induction l as [|x l IH]; intros n Hn; cbn [takeN]; [reflexivity|].
  rewrite lenN_cons in Hn. destruct (n =? 0) eqn:E; [apply N.eqb_eq in E; lia|].
  f_equal. apply IH. lia.
Qed.
Lemma takeN_app n a b : takeN n (a ++ b) = takeN n a ++ takeN (n - lenN a) b.
Proof.
  revert n. induction a as [|x a IH]; intros n.
  - rewrite lenN_nil, N.sub_0_r. reflexivity.
  - cbn [app takeN]. destruct (n =? 0) eqn:E.
    + apply N.eqb_eq in E. subst. cbn. now rewrite takeN_0.
    + apply N.eqb_neq in E. cbn [app]. rewrite IH, lenN_cons.
      replace (n - (1 + lenN a)) with (N.pred n - lenN a) by lia. reflexivity.
Qed.
Lemma dropN_all n l : lenN l <= n -> dropN n l = [].
Proof.
  intros Hn. pose proof (takeN_dropN n l) as E. rewrite (takeN_all _ _ Hn) in E.
  apply (app_inv_head l). now rewrite app_nil_r.
Qed.
Lemma dropN_app n a b : n <= lenN a -> dropN n (a ++ b) = dropN n a ++ b.
Proof.
  revert n. induction a as [|x a IH]; intros n Hn.
  - rewrite lenN_nil in Hn. assert (n = 0) by lia. subst. now rewrite dropN_0.
  - cbn [dropN app]. destruct (n =? 0) eqn:E; [reflexivity|]. apply N.eqb_neq in E.
    rewrite lenN_cons in Hn. apply IH. lia.
Qed.
Lemma dropN_app_ge n a b : lenN a <= n -> dropN n (a ++ b) = dropN (n - lenN a) b.
Proof.
  revert n. induction a as [|x a IH]; intros n Hn.
  - rewrite lenN_nil, N.sub_0_r. reflexivity.
  - cbn [dropN app]. rewrite lenN_cons in *. destruct (n =? 0) eqn:E; [apply N.eqb_eq in E; lia|].
    rewrite IH by lia. f_equal. lia.
Qed.
Lemma dropN_dropN n m l : dropN n (dropN m l) = dropN (m + n) l.
Proof.
  revert m. induction l as [|x l IH]; intros m; cbn.
  - destruct (dropN m []); reflexivity.
  - destruct (m =? 0) eqn:E.
    + apply N.eqb_eq in E. subst. cbn. reflexivity.
    + apply N.eqb_neq in E. rewrite IH. destruct (m + n =? 0) eqn:E2; [apply N.eqb_eq in E2; lia|].
      f_equal. lia.
Qed.

Section Streams.
  Variable S : Type.
  Variable rd : S -> (bytes * err) * S.

  (** some number of successful reads, concatenated *)
  Inductive pulls : S -> bytes -> S -> Prop :=
  | pulls_nil s : pulls s [] s
  | pulls_step s c s' bs s'' :
      rd s = ((c, ENone), s') -> pulls s' bs s'' -> pulls s (c ++ bs) s''.

  (** successful reads up to the first error [e] (io.EOF included) *)
  Inductive drains : S -> bytes -> err -> S -> Prop :=
  | drains_end s c e s' : rd s = ((c, e), s') -> e <> ENone -> drains s [] e s'
  | drains_step s c s' bs e s'' :
      rd s = ((c, ENone), s') -> drains s' bs e s'' -> drains s (c ++ bs) e s''.

  Lemma pulls_snoc s bs s' c s'' :
    pulls s bs s' -> rd s' = ((c, ENone), s'') -> pulls s (bs ++ c) s''.
  Proof.
    induction 1 as [s|s c0 s1 bs s2 Hr _ IH]; intros Hc.
    - cbn. rewrite <- (app_nil_r c). econstructor; [eassumption|constructor].
    - rewrite <- app_assoc. econstructor; [eassumption|]. now apply IH.
  Qed.

  Lemma pulls_trans s a s' b s'' : pulls s a s' -> pulls s' b s'' -> pulls s (a ++ b) s''.
  Proof.
    induction 1; intros Hb; [exact Hb|]. rewrite <- app_assoc. econstructor; eauto.
  Qed.

  Lemma pulls_drains s bs s' bs' e s'' :
    pulls s bs s' -> drains s' bs' e s'' -> drains s (bs ++ bs') e s''.
  Proof.
    induction 1; intros Hd; [exact Hd|]. rewrite <- app_assoc. econstructor; eauto.
  Qed.

  Lemma drains_det s b1 e1 s1 b2 e2 s2 :
    drains s b1 e1 s1 -> drains s b2 e2 s2 -> b1 = b2 /\ e1 = e2 /\ s1 = s2.
  Proof.
    intros H1. revert b2 e2 s2.
    induction H1 as [s c e s' Hr Hne|s c s' bs e s'' Hr _ IH]; intros b2 e2 s2 H2; inversion H2; subst.
    - rewrite Hr in H. inversion H; subst. auto.
    - rewrite Hr in H. inversion H; subst. congruence.
    - rewrite Hr in H. inversion H; subst. congruence.
    - rewrite Hr in H. inversion H; subst. destruct (IH _ _ _ H0) as (-> & -> & ->). auto.
  Qed.

  Lemma pulls_prefix_drains s bs s' full e s2 :
    pulls s bs s' -> drains s full e s2 -> exists rest, full = bs ++ rest /\ drains s' rest e s2.
  Proof.
    intros Hp. revert full. induction Hp as [s|s c s1 bs s' Hr _ IH]; intros full Hd.
    - exists full. auto.
    - inversion Hd; subst.
      + rewrite Hr in H. inversion H; subst. congruence.
      + rewrite Hr in H. inversion H; subst. destruct (IH _ H0) as (rest & -> & Hd').
        exists rest. rewrite app_assoc. auto.
  Qed.

  Lemma drains_not_none s bs e s' : drains s bs e s' -> e <> ENone.
  Proof. induction 1; auto. Qed.

  Lemma drain_drains fuel : forall out s out' e s',
    drain rd fuel out s = ((out', e), s') -> e <> EFuel ->
    exists bs, out' = out ++ bs /\ drains s bs e s'.
  Proof.
    induction fuel as [|f IH]; intros out s out' e s' Hd Hne; cbn in Hd.
    - inversion Hd; subst. congruence.
    - destruct (rd s) as [[c e0] s1] eqn:Hr.
      destruct e0; try (inversion Hd; subst; exists []; rewrite app_nil_r; split; [reflexivity|];
                        eapply drains_end; [eassumption|congruence]).
      destruct (IH _ _ _ _ _ Hd Hne) as (bs & -> & Hds).
      exists (c ++ bs). rewrite app_assoc. split; [reflexivity|]. econstructor; eassumption.
  Qed.
End Streams.
Arguments pulls {S}. Arguments drains {S}.
