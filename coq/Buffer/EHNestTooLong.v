(** C16N — the monitor the judge applies, [mon16Nx], is silent on the model
    for EVERY input of the domain: no side condition on the run's result.

    [run_tree_clause2] (Buffer/EHNestMoreRoot.v) leaves one alternative for
    ToReader: "the outermost handler's last answer was the error x, but the
    consumer got the validator's own error code".  Here: that alternative only
    arises when the object the tree carries is LONGER than the digest's size -
    the too-long exception of [mon16Nx] ([toolong16N], Run/R16N.v).

    The casValidatingReader produces its own code in four places:
      - data handed over by the reader exceeds bytesRemaining (checked BEFORE
        the error that came with the data is looked at);
      - io.ReadFull(r, p[:1]) after the last expected byte got a byte (and
        dropped the error that came with it);
      - io.EOF before bytesRemaining = 0;   - checksum mismatch at io.EOF.
    The last two need io.EOF from the reader, and a root handler that has
    passed on io.EOF has not answered with an error.  In the first two the
    bytes the reader has handed out in total exceed the digest's size, and they
    are a prefix of the object the tree carries ([nrread_is_rlaw],
    Buffer/EHNestCarry.v), so the object is longer than the digest's size. *)
From Coq Require Import List ZArith NArith Bool Lia.
From BBS Require Import Common.Sx Buffer.Source Buffer.Validate Buffer.StreamProofs
  Buffer.ValidateProofs Buffer.ValidateReaderProofs Buffer.EHFullCarry Buffer.EHFullPrefix Buffer.EHNest Buffer.EHNestCarry Buffer.EHNestRules
  Buffer.EHNestMoreRoot Buffer.EHNestMoreMon Buffer.EHNestMoreTop Buffer.EHNestDepth Run.R09 Run.R16N
  Run.R16NProofs.
Import ListNotations.
Open Scope N_scope.

(** * The casValidatingReader over a reader that carries the object and whose
    errors say what the root handler returned *)
Section ValidatorTooLong.
  Variable cfg : vcfg.
  Context {S : Type}.
  Variable rd : N -> S -> (bytes * err) * S.
  Variable I : bytes -> S -> Prop.
  Hypothesis Hlaw : rlaw rd I.
  Variable L : N.          (* the length of the object *)

  (** while no error is stuck the reader carries a rest [Crem] of the object, and what has been
      handed out so far ([L - |Crem|]) is what the validator has counted ([size - bytesRemaining]) *)
  Definition Exl (st : vst S) : Prop := exists Crem, I Crem (v_u st) /\ L + v_rem st = g_size cfg + lenN Crem.

  Lemma exl_long st bs ot u' : Exl st -> rran S rd (v_u st) bs ot u' -> v_rem st < lenN bs -> g_size cfg < L.
  Proof.
    intros (Crem & Hi & Hlen) Hx Hl. destruct (rran_law _ _ _ Hlaw _ _ _ _ _ Hx Hi) as (C' & EC & _).
    rewrite EC, lenN_app in Hlen. lia.
  Qed.
  Lemma exl_more st c st' :
    Exl st -> rran S rd (v_u st) c None (v_u st') -> v_rem st' + lenN c = v_rem st -> Exl st'.
  Proof.
    intros (Crem & Hi & Hlen) Hx Hrem. destruct (rran_law _ _ _ Hlaw _ _ _ _ _ Hx Hi) as (C' & EC & HI').
    exists C'. split; [exact HI'|]. rewrite EC, lenN_app in Hlen. lia.
  Qed.
End ValidatorTooLong.

(** * Clause 2 on the model, every method, with the too-long alternative made explicit *)
Section Methods.
  Variable H : bytes -> bytes.
  Variable cfg : vcfg.
  Variable fuel : nat.
  Variable C : bytes.

  Theorem run_tree_clause2_toolong inner ans m :
    tcarry C (NW inner ans) ->
    z_err (run_tree H cfg fuel (NW inner ans) m) <> EFuel ->
    match z_tree (run_tree H cfg fuel (NW inner ans) m) with
    | ONode offs _ _ =>
        forall x, returnedN ans (length offs) = Some x ->
          z_err (run_tree H cfg fuel (NW inner ans) m) = ECode x \/
          (is_to_reader m = true /\ z_err (run_tree H cfg fuel (NW inner ans) m) = ECode (g_code cfg) /\
           g_size cfg < lenN C)
    | OLeaf _ => True
    end.
  Proof.
    intros Hcar. pose proof (nrread_is_rlaw C fuel) as Hlaw.
    apply (run_tree_clause2_ex H cfg fuel inner ans (Exl cfg (I_nrd C) (lenN C))).
    - exact (exl_long cfg _ _ Hlaw _).
    - exact (exl_more cfg _ _ Hlaw _).
    - exists C. split; [apply nropen_init_carries; exact Hcar|]. cbn [vinit v_rem]. lia.
  Qed.
End Methods.

Lemma clause2_toolong H cfg fuel inner ans m C out :
  out = run_tree H cfg fuel (NW inner ans) m ->
  tcarry C (NW inner ans) ->
  z_err out <> EFuel ->
  In 2%Z (monN_data (NW inner ans) m C (z_data out) (C09FullMonitor.code_of (z_err out)) (codes_of (z_tree out))) ->
  is_to_reader m = true /\ z_err out = ECode (g_code cfg) /\ g_size cfg < lenN C.
Proof.
  intros Eout Hcar Hnf Hin. apply monN_data_clause2 in Hin.
  pose proof (run_tree_clause2_toolong H cfg fuel C inner ans m Hcar) as Hc. rewrite <- Eout in Hc. specialize (Hc Hnf).
  destruct (z_tree out) as [n|offs d kids]; cbn [codes_of] in Hin; [contradiction|].
  destruct Hin as (c' & Er & Hne). rewrite map_length in Er.
  destruct (Hc c' Er) as [E|E]; [|exact E]. rewrite E in Hne. exfalso. exact (Hne eq_refl).
Qed.

(** when clause 2 fires on the model the too-long exception applies *)
Lemma mon16N_clause2_toolong inp :
  dom16NG inp -> In 2%Z (mon16N inp (run16N inp)) -> toolong16N inp (run16N inp) = true.
Proof.
  intros (Hok & Hroot & Hg & Hm3 & Hpos) Hin. destruct (out16N_no_fuel inp Hg) as [Hnf _].
  rewrite (mon16N_decoded0 inp) in Hin.
  destruct (proj1 (tree_ok_carries _) _ Hok) as (Hcar & _).
  unfold toolong16N. cbv zeta.
  destruct (n_tree (dec_case16N inp)) as [b|inner ans] eqn:Et; [contradiction|].
  pose proof (out16N_eq inp) as Eo. rewrite Et in Eo.
  destruct (clause2_toolong _ _ _ _ _ _ _ _ Eo Hcar Hnf Hin) as (Hm & He & Hl).
  unfold run16N. destruct (sx_nth_enc_outN (n_report (dec_case16N inp)) (out16N inp)) as (_ & E1 & _).
  rewrite E1, He. cbn [enc_err sx_Z]. rewrite Z.eqb_refl.
  apply N.ltb_lt in Hl. rewrite Hl.
  destruct (n_meth (dec_case16N inp)); try discriminate. reflexivity.
Qed.

(** The monitor the judge applies is silent on the model: every input of the
    domain, no condition on how the run ends. *)
Lemma all2_filter (l : list Z) : (forall c, In c l -> c = 2%Z) -> filter (fun z => negb (z =? 2)%Z) l = [].
Proof.
  induction l as [|k l IH]; intros Hall; [reflexivity|]. cbn [filter].
  rewrite (Hall k (or_introl eq_refl)). cbn. apply IH. intros c Hc. apply Hall. right. exact Hc.
Qed.

Theorem mon16Nx_silent_on_model inp : dom16NG inp -> mon16Nx inp (run16N inp) = [].
Proof.
  intros Hdom. pose proof (mon16N_on_model_nodepth inp Hdom) as Hall.
  pose proof (mon16N_clause2_toolong inp Hdom) as Htl.
  unfold mon16Nx. cbv zeta.
  destruct (toolong16N inp (run16N inp)) eqn:Etl.
  - apply all2_filter. exact Hall.
  - apply all2_notin; [exact Hall|]. intros Hin. pose proof (Htl Hin) as X. congruence.
Qed.

Corollary mon16Nx_silent_on_model_F inp : dom16NF inp -> mon16Nx inp (run16N inp) = [].
Proof. intros Hd. exact (mon16Nx_silent_on_model inp (dom16NF_dom16NG inp Hd)). Qed.
