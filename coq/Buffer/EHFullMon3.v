(** C16 — monitor clause 3 (a streaming method completed => the stitched
    stream of the specification is valid and the consumer holds exactly its
    expected slice) never fires on the model's own observation, for inputs in
    the harness's domain on which the model does not run out of fuel
    ([clause_3_silent_on_model]).  The file also holds what the other files on
    the monitor share: [out16], [dom16], [trusted_bytes], [validb_valid] and
    the accessors of the observation. *)
From Coq Require Import List ZArith NArith Bool Lia.
From BBS Require Import Common.Sx Buffer.Source Buffer.Validate Buffer.Convert Buffer.ErrHandler
  Buffer.StreamProofs Buffer.ConvertProofs Buffer.C09FullMonitor Buffer.EHFullStacking
  Buffer.EHFullCompleted Run.R09 Run.R16.
Import ListNotations.
Open Scope Z_scope.

Definition out16 (inp : sx) : outcome16s :=
  let c := dec_case16 inp in
  run_stack (lookup (q_tbl c)) (q_cfg c) (stack_fuel (q_b0 c) (q_anss c)) (q_b0 c) (q_anss c) (q_meth c).

Lemma run16_out16 inp : run16 inp = enc_out16s (q_report (dec_case16 inp)) (out16 inp).
Proof. reflexivity. Qed.

Lemma obs_data_out r o : dec_bytes (sx_nth (enc_out16s r o) 0) = y_data o.
Proof. apply dec_bytes_of_Ns. Qed.
Lemma obs_code_out r o : sx_Z (sx_nth (enc_out16s r o) 1) = R16.code_of (y_err o).
Proof. cbn. destruct (y_err o); reflexivity. Qed.

Lemma In_single {A} (x y : A) : In x [y] -> x = y.
Proof. intros [E|[]]; auto. Qed.
Lemma In_unless {A} (b : bool) (k x : A) : In k (if b then [] else [x]) -> b = false /\ k = x.
Proof. destruct b; [contradiction|]. intros [E|[]]. auto. Qed.
Lemma In_when {A} (b : bool) (k x : A) : In k (if b then [x] else []) -> b = true /\ k = x.
Proof. destruct b; [|contradiction]. intros [E|[]]. auto. Qed.

(** the hypotheses: at least one handler, well-formed buffers, no out-of-fuel
    marker offered to a handler by the model's run, and a positive final error
    code of the model's outcome *)
Definition dom16 (inp : sx) : Prop :=
  let c := dec_case16 inp in
  q_anss c <> [] /\ wf_case (q_b0 c) (q_anss c) /\
  no_fuel_offered (y_logs (out16 inp)) /\
  (forall x, y_err (out16 inp) = ECode x -> 0 < x).

Lemma trusted_bytes H cfg b0 anss :
  all_bytes_trusted (fun d => (lenN d =? g_size cfg)%N && bytes_eqb (g_hash cfg) (H d)) b0 anss = true ->
  bytes_trusted H cfg b0 anss.
Proof.
  unfold all_bytes_trusted, bytes_trusted, replacements. intros Hall d Hin.
  rewrite forallb_forall in Hall. specialize (Hall _ Hin). cbn in Hall.
  apply andb_true_iff in Hall. destruct Hall as (Hl & Hh). apply N.eqb_eq in Hl. apply bytes_eqb_eq in Hh.
  split; assumption.
Qed.

Lemma validb_valid H cfg d :
  valid_bytes H cfg d -> (lenN d =? g_size cfg)%N && bytes_eqb (g_hash cfg) (H d) = true.
Proof. intros (Hl & Hh). rewrite Hl, N.eqb_refl. cbn. apply bytes_eqb_eq. exact Hh. Qed.

Theorem clause_3_silent_on_model : forall inp, dom16 inp -> ~ In 3 (mon16 inp (run16 inp)).
Proof.
  intros inp (Hne & Hwf & Hnf & Hpos) Hin. rewrite run16_out16 in Hin. unfold mon16 in Hin.
  set (c := dec_case16 inp) in *. set (o := out16 inp) in *.
  pose proof (run_stack_completed_streaming (lookup (q_tbl c)) (q_cfg c) (stack_fuel (q_b0 c) (q_anss c))
                (q_b0 c) (q_anss c) (q_meth c)) as Hthm. fold o in Hthm. cbv zeta in Hthm.
  destruct (piece_of (q_b0 c) 0) as [p0 t0].
  destruct (stitch_stack p0 t0 (q_anss c)) as [[st term] offss].
  cbv zeta in Hin.
  repeat (apply in_app_or in Hin; destruct Hin as [Hin|Hin]);
    try (match type of Hin with In _ (if ?x then _ else _) => destruct x end; try contradiction;
         apply In_single in Hin; discriminate).
  destruct (is_discard (q_meth c)); [contradiction|].
  repeat (apply in_app_or in Hin; destruct Hin as [Hin|Hin]).
  - destruct (returned _ _); [|contradiction].
    destruct (In_unless _ _ _ Hin) as [_ E]. discriminate E.
  - revert Hin.
    destruct (match q_meth c with MIntoWriter | MToChunkReader _ _ _ | MToReader _ _ => true | _ => false end) eqn:Hsb;
      intros Hin.
    + assert (Hs : EHFullPrefix.streaming (q_meth c)) by (destruct (q_meth c); try discriminate Hsb; exact I).
      repeat (apply in_app_or in Hin; destruct Hin as [Hin|Hin]);
        try (match type of Hin with In _ (if ?x then _ else _) => destruct x end; try contradiction;
             apply In_single in Hin; discriminate).
      (* clause 3 itself *)
      destruct (In_when _ _ _ Hin) as [Hc3 _].
      apply andb_true_iff in Hc3. destruct Hc3 as (Hc3 & Hbad). apply andb_true_iff in Hc3. destruct Hc3 as (Hdone & Htr).
      rewrite obs_code_out, (completes_completed _ _ Hpos) in Hdone.
      destruct (Hthm Hs Hne Hdone Hwf Hnf) as (st' & Hspec & Hdata & Hval).
      inversion Hspec; subst st' term. clear Hspec.
      change (y_data o = expected_slice (q_meth c) st) in Hdata.
      rewrite obs_data_out, Hdata in Hbad. change (expected (q_meth c) st) with (expected_slice (q_meth c) st) in Hbad.
      rewrite bytes_eqb_refl, (validb_valid _ _ _ (Hval (trusted_bytes _ _ _ _ Htr))) in Hbad. discriminate.
    + match type of Hin with In _ (if ?x then _ else _) => destruct x end; [|contradiction].
      destruct (buffer_in_use _ _ _) as [b|]; [|apply In_single in Hin; discriminate].
      destruct (ucontent b) as [cont t].
      destruct (In_unless _ _ _ Hin) as [_ E]. discriminate E.
Qed.
