(** C16 (fuel) — the out-of-fuel hypotheses of the theorems of
    EHFullCompleted.v / EHFullRuns.v / EHFullMonR.v ([y_err o <> EFuel],
    [no_fuel_offered (y_logs o)]) follow from [stack_fuel b0 anss <= fuel] and
    [good_param m = true] (EHFuelSuffices.v).
    The monitor theorem needs [good_param] of the decoded method only, because
    [run16] runs the model on [stack_fuel] of the decoded case. *)
From Coq Require Import List ZArith NArith Bool Lia.
From BBS Require Import Common.Sx Buffer.Source Buffer.Validate Buffer.ErrHandler
  Buffer.ValidateProofs Buffer.C09FuelSuffices Buffer.EHFullStacking Buffer.EHFullCompleted
  Buffer.EHFullMon3 Buffer.EHFullMonR Buffer.EHFuelSuffices Run.R09 Run.R16.
Import ListNotations.
Open Scope Z_scope.

Lemma clean_logs_no_fuel logs : clean_logs logs -> no_fuel_offered logs.
Proof.
  unfold clean_logs, no_fuel_offered. intros Hc. eapply Forall_impl; [|exact Hc].
  intros l Hl Hin. apply Hl. unfold oell in Hin. apply in_flat_map in Hin.
  destruct Hin as (x & Hx & Hin). destruct x as [e|]; [|contradiction].
  destruct Hin as [->|[]]. exact Hx.
Qed.

(** [stack_fuel] suffices, in the vocabulary of the C16 theorems *)
Theorem run_stack_no_fuel H cfg fuel b0 anss m :
  (stack_fuel b0 anss <= fuel)%nat -> good_param m = true ->
  y_err (run_stack H cfg fuel b0 anss m) <> EFuel /\
  no_fuel_offered (y_logs (run_stack H cfg fuel b0 anss m)).
Proof.
  intros Hf Hg. destruct (stack_fuel_suffices H cfg fuel b0 anss m Hf Hg) as [A B].
  split; [exact A|apply clean_logs_no_fuel; exact B].
Qed.

Theorem out16_no_fuel inp : good_param (q_meth (dec_case16 inp)) = true ->
  y_err (out16 inp) <> EFuel /\ no_fuel_offered (y_logs (out16 inp)).
Proof. intros Hg. unfold out16. cbv zeta. apply run_stack_no_fuel; [apply le_n|exact Hg]. Qed.

(** The monitor is silent on the model, without a fuel hypothesis.
    The domain: at least one handler; well-formed buffers; parameters the
    method accepts; positive loop parameters; a positive final error code. *)
Definition dom16F (inp : sx) : Prop :=
  let c := dec_case16 inp in
  q_anss c <> [] /\ wf_case (q_b0 c) (q_anss c) /\
  bad_param (g_size (q_cfg c)) (q_meth c) = false /\
  good_param (q_meth c) = true /\
  (forall x, y_err (out16 inp) = ECode x -> 0 < x).

Theorem mon16_silent_on_model_fuel : forall inp, dom16F inp -> mon16 inp (run16 inp) = [].
Proof.
  intros inp (Hne & Hwf & Hbp & Hg & Hpos). destruct (out16_no_fuel inp Hg) as [A B].
  apply mon16_silent_on_model. unfold dom16all, dom16. rsplit; assumption.
Qed.
