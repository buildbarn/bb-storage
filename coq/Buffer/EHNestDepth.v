(** C16N — the monitor on the model WITHOUT the depth hypothesis of [dom16NF].

    [dom16NF] (Buffer/EHNestMoreTop.v) asks [tdepth (n_tree c) <= 64] of the
    decoded tree, because [tdepth (dec_tree 64 s) <= 64] is false: the decoder
    cuts a tree that is nested deeper than its fuel with [NB (BError 2)], a
    plain buffer of depth 1, so the honest bound is [tdepth (dec_tree k s) <= k + 1]
    ([dec_tree_depths]; [deep_tree_depth]: 65 is reached).  The hypothesis is not
    needed: the leaves at depth 65 are error buffers, an error buffer is observed
    as [OLeaf 0], and that is what the monitor's decoder [dec_ctree] makes of
    ANYTHING once it is out of fuel.  With depths that count an error buffer /
    a leaf observed with 0 closes as 0 ([tdepth0], [odepth0]):

      (a) [tdepth0 (dec_tree k s) <= k]                                     [dec_tree_depth0]
      (b) [odepth0 o <= n -> dec_ctree n (enc_otree o) = codes_of o]        [dec_enc_otree0]
      (c) [odepth0 (z_tree (run_tree H cfg fuel t m)) <= tdepth0 t]         [run_tree_depth0]
          every tree, method, fuel (the argument of Buffer/EHNestMoreDone.v, with these depths)

    so [mon16N inp (run16N inp)] is the monitor on the model's decoded data for
    EVERY input ([mon16N_decoded0]), and the theorems of EHNestMoreTop.v hold on
    [dom16NG] = [dom16NF] without its depth conjunct. *)
From Coq Require Import List ZArith NArith Bool Lia.
From BBS Require Import Common.Sx Buffer.Source Buffer.Validate Buffer.Convert Buffer.ErrHandler
  Buffer.ValidateProofs Buffer.C09FuelSuffices Buffer.EHNest Buffer.EHNestRules Buffer.EHNestMoreRoot
  Buffer.EHNestMoreMon Buffer.EHNestMoreDone Buffer.EHNestMoreTop Run.R16 Run.R16N Run.R16NProofs.
Import ListNotations.
Open Scope nat_scope.

(** * Refined depths: an error buffer / a leaf observed with 0 closes counts 0 *)
Definition leaf_depth0 (b : bufscript) : nat := match b with BError _ => 0 | _ => 1 end.
Fixpoint tdepth0 (t : nbuf) : nat :=
  match t with
  | NB b => leaf_depth0 b
  | NW inner ans => S (Nat.max (tdepth0 inner) (adepth0 ans))
  end
with adepth0 (a : nanss) : nat :=
  match a with
  | ANil => 0
  | ARep b r => Nat.max (tdepth0 b) (adepth0 r)
  | AFail _ r => adepth0 r
  end.

Fixpoint odepth0 (o : otree) : nat :=
  match o with
  | OLeaf O => 0
  | OLeaf (S _) => 1
  | ONode _ _ kids => S (fold_right (fun k n => Nat.max (odepth0 k) n) 0 kids)
  end.

Lemma odepth0_leaf k : odepth0 (OLeaf k) <= 1.
Proof. destruct k; cbn [odepth0]; lia. Qed.

Lemma tdepth_tdepth0 :
  (forall t, tdepth t <= S (tdepth0 t)) /\ (forall a, adepth a <= S (adepth0 a)).
Proof.
  apply nbuf_nanss_ind; cbn [tdepth adepth tdepth0 adepth0]; intros; lia.
Qed.

Definition dec_anss (f : nat) (anss : list sx) : nanss :=
  fold_right (fun a r => match a with
                         | L [A 0; b] => ARep (dec_tree f b) r
                         | L [A 1; A c] => AFail c r
                         | _ => AFail 2 r
                         end) ANil anss.

Lemma dec_tree_S_cases f s :
  (exists inner anss, dec_tree (S f) s = NW (dec_tree f inner) (dec_anss f anss)) \/
  dec_tree (S f) s = NB (dec_buf s).
Proof.
  destruct s as [z|l]; [right; reflexivity|].
  destruct l as [|a l]; [right; reflexivity|].
  destruct a as [z|l0]; [|right; reflexivity].
  destruct z as [|p|p]; try (right; reflexivity).
  destruct p as [p|p|]; try (right; reflexivity).
  destruct p as [p|p|]; try (right; reflexivity).
  destruct p as [p|p|]; try (right; reflexivity).
  destruct l as [|inner l]; [right; reflexivity|].
  destruct l as [|x l]; [right; reflexivity|].
  destruct x as [z|anss]; [right; reflexivity|].
  destruct l as [|y l]; [|right; reflexivity].
  left. exists inner, anss. reflexivity.
Qed.

Lemma leaf_depth0_le b : leaf_depth0 b <= 1.
Proof. destruct b; cbn; lia. Qed.

Lemma dec_tree_depth0 : forall k s, tdepth0 (dec_tree k s) <= k.
Proof.
  induction k as [|f IH]; intros s; [cbn; lia|].
  destruct (dec_tree_S_cases f s) as [(inner & anss & E)|E]; rewrite E; cbn [tdepth0].
  - assert (Ha : adepth0 (dec_anss f anss) <= f).
    { clear E. induction anss as [|a anss IHa]; [cbn; lia|]. unfold dec_anss. cbn [fold_right]. fold (dec_anss f anss).
      assert (Hdef : adepth0 (AFail 2 (dec_anss f anss)) <= f) by exact IHa.
      destruct a as [z|l]; [exact Hdef|].
      destruct l as [|a0 l]; [exact Hdef|].
      destruct a0 as [z|l0]; [|exact Hdef].
      destruct z as [|p|p]; try exact Hdef.
      - destruct l as [|b l]; [exact Hdef|]. destruct l; [|exact Hdef].
        cbn [adepth0]. pose proof (IH b). lia.
      - destruct p as [p|p|]; try exact Hdef.
        destruct l as [|b l]; [exact Hdef|]. destruct b as [c|lb]; [|exact Hdef]. destruct l; exact IHa. }
    pose proof (IH inner). lia.
  - pose proof (leaf_depth0_le (dec_buf s)). lia.
Qed.

Lemma dec_tree_depths k s : tdepth0 (dec_tree k s) <= k /\ tdepth (dec_tree k s) <= k + 1.
Proof. pose proof (proj1 tdepth_tdepth0 (dec_tree k s)). pose proof (dec_tree_depth0 k s). lia. Qed.

Lemma dec_enc_otree0 : forall o n, odepth0 o <= n -> dec_ctree n (enc_otree o) = codes_of o.
Proof. apply dec_enc_otree; [intros [|k]; [reflexivity|discriminate]|reflexivity]. Qed.

(** * (c) the observed tree is no deeper than the input tree: the argument of
    Buffer/EHNestMoreDone.v with the refined depths.  At bound 0 a plain reader
    is the reader of an error buffer: reads and Close leave it as it is, it has
    no source to close. *)
Definition uerr (u : ucr) : Prop := match u with UErr _ => True | _ => False end.
Definition rerr (u : urd) : Prop := match u with RErr _ => True | _ => False end.

(** an error buffer has no source: nothing is closed, whatever the method *)
Lemma plain_leaf0 H cfg fuel b m : odepth0 (OLeaf (o_closed (plain H cfg fuel b m))) <= leaf_depth0 b.
Proof.
  destruct b as [evs|evs a|d|c]; cbn [leaf_depth0]; try apply odepth0_leaf.
  unfold plain, error_buffer. destruct m; cbn; lia.
Qed.

Theorem run_tree_depth0 H cfg fuel t m : odepth0 (z_tree (run_tree H cfg fuel t m)) <= tdepth0 t.
Proof.
  apply (run_tree_Qc tdepth0 adepth0 odepth0) with (lc := fun n u => n = 0 -> uerr u) (lr := fun n u => n = 0 -> rerr u);
    try reflexivity.
  - intros ifuel b off n Hn ->. destruct b; cbn in Hn; try lia. exact I.
  - intros ifuel max n u x u' Hu Hr E. specialize (Hu E). destruct u; try contradiction. cbn in Hr. inv Hr. exact I.
  - intros [|n] u Hu; [|pose proof (odepth0_leaf (sum_nat (ucr_closes (ucr_close u)))); lia].
    specialize (Hu eq_refl). destruct u; try contradiction. cbn. lia.
  - intros ifuel b off n Hn ->. destruct b; cbn in Hn; try lia. exact I.
  - intros ifuel cap n u x u' Hu Hr E. specialize (Hu E). destruct u; try contradiction. cbn in Hr. inv Hr. exact I.
  - intros [|n] u Hu; [|pose proof (odepth0_leaf (sum_nat (urd_closes (urd_close u)))); lia].
    specialize (Hu eq_refl). destruct u; try contradiction. cbn. lia.
  - apply plain_leaf0.
Qed.

(** * The monitor on the model's observation is the monitor on the model's
    decoded data - EVERY input, no hypothesis *)
Lemma out16N_depth0 inp : odepth0 (z_tree (out16N inp)) <= tree_depth_bound.
Proof.
  rewrite (out16N_eq inp).
  eapply Nat.le_trans; [apply run_tree_depth0|]. apply (dec_tree_depth0 tree_depth_bound).
Qed.

Lemma mon16N_decoded0 inp :
  mon16N inp (run16N inp) =
  monN_data (n_tree (dec_case16N inp)) (n_meth (dec_case16N inp)) (n_obj (dec_case16N inp))
            (z_data (out16N inp)) (C09FullMonitor.code_of (z_err (out16N inp))) (codes_of (z_tree (out16N inp))).
Proof. exact (mon16N_decoded inp (dec_enc_otree0 _ _ (out16N_depth0 inp))). Qed.

(** * The domain without fuel AND without depth hypothesis *)
Definition dom16NG (inp : sx) : Prop :=
  let c := dec_case16N inp in
  tree_ok (n_obj c) (n_tree c) = true /\
  (match n_tree c with NW _ _ => True | NB _ => False end) /\
  good_param (n_meth c) = true /\
  nom3 (z_tree (out16N inp)) = true /\
  (forall x, z_err (out16N inp) = ECode x -> (0 < x)%Z).

Lemma dom16NF_dom16NG inp : dom16NF inp -> dom16NG inp.
Proof. intros (A & B & C & D & E & _). unfold dom16NG. auto. Qed.

(** all clauses but 2 *)
Theorem mon16N_on_model_nodepth inp : dom16NG inp -> forall c, In c (mon16N inp (run16N inp)) -> c = 2%Z.
Proof.
  intros (Hok & Hroot & Hg & Hm3 & Hpos) c Hin. destruct (out16N_no_fuel inp Hg) as [A B].
  rewrite (mon16N_decoded0 inp) in Hin.
  exact (monN_data_on_model' _ _ _ _ _ _ _ (out16N_eq inp) Hok Hroot (noEF_nofuel _ B Hm3) Hpos c Hin).
Qed.

(** every clause; ToReader: unless the run ends in the validator's own error code *)
Theorem mon16N_silent_on_model_nodepth inp :
  dom16NG inp ->
  (is_to_reader (n_meth (dec_case16N inp)) = true ->
   z_err (out16N inp) <> ECode (g_code (n_cfg (dec_case16N inp)))) ->
  mon16N inp (run16N inp) = [].
Proof.
  intros Hdom Htr. apply all2_notin; [exact (mon16N_on_model_nodepth inp Hdom)|]. intros Hin.
  destruct Hdom as (Hok & Hroot & Hg & Hm3 & Hpos). destruct (out16N_no_fuel inp Hg) as [Hnf _].
  rewrite (mon16N_decoded0 inp) in Hin.
  destruct (n_tree (dec_case16N inp)) as [b|inner ans] eqn:Et; [contradiction|].
  pose proof (out16N_eq inp) as Eo. rewrite Et in Eo.
  exact (clause2_core _ _ _ _ _ _ _ _ Eo Hnf Htr Hin).
Qed.

Theorem mon16N_on_model_fuel inp : dom16NF inp -> forall c, In c (mon16N inp (run16N inp)) -> c = 2%Z.
Proof. intros Hd. exact (mon16N_on_model_nodepth inp (dom16NF_dom16NG inp Hd)). Qed.
Theorem mon16N_silent_on_model_fuel inp :
  dom16NF inp ->
  (is_to_reader (n_meth (dec_case16N inp)) = true ->
   z_err (out16N inp) <> ECode (g_code (n_cfg (dec_case16N inp)))) ->
  mon16N inp (run16N inp) = [].
Proof. intros Hd. exact (mon16N_silent_on_model_nodepth inp (dom16NF_dom16NG inp Hd)). Qed.

(** * Non-vacuity: a tree nested deeper than the decoder's fuel.  64 handlers
    (each answering its first error with 7) around a chunk-reader buffer: the
    decoder replaces what is below level 64 by an error buffer (code 2), the
    decoded tree has depth 65 - outside [dom16NF], inside [dom16NG]. *)
Fixpoint nest (n : nat) (s : sx) : sx :=
  match n with
  | O => s
  | S n' => L [A 4; nest n' s; L [L [A 1; A 7]]]
  end.
Definition deep_inp : sx :=
  L [A 0; L [A 2; L [A 0; A 0; A 0; A 1]; A 2];
     nest 64 (L [A 0; L [L [A 0; L [A 98; A 99]]; L [A 2]]]);
     L [A 3; A 0; A 2; A 1]; L []; L [A 98; A 99]].

Example deep_tree_depth :
  tdepth (n_tree (dec_case16N deep_inp)) = 65 /\ tdepth0 (n_tree (dec_case16N deep_inp)) = 64.
Proof. vm_compute. split; reflexivity. Qed.

Example deep_in_domain : dom16NG deep_inp.
Proof.
  unfold dom16NG. repeat match goal with |- _ /\ _ => split end.
  - vm_compute. reflexivity.
  - vm_compute. exact I.
  - vm_compute. reflexivity.
  - vm_compute. reflexivity.
  - intros x E. vm_compute in E. inversion E. lia.
Qed.
Example deep_not_in_old_domain : ~ dom16NF deep_inp.
Proof.
  intros (_ & _ & _ & _ & _ & Hd). cbv zeta in Hd. apply Nat.leb_le in Hd. vm_compute in Hd. discriminate.
Qed.
Example deep_monitor_silent : mon16N deep_inp (run16N deep_inp) = [].
Proof. vm_compute. reflexivity. Qed.
