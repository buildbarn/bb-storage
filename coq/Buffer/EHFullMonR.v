(** C16 — the monitor is silent on the model for the whole-operation methods
    (ToByteSlice, ReadAt, CloneCopy) and for Discard as well; together with
    Buffer/EHFullMonS.v: for EVERY method. *)
From Coq Require Import List ZArith NArith Bool Lia.
From BBS Require Import Common.Sx Buffer.Source Buffer.Validate Buffer.Convert Buffer.ErrHandler Buffer.ValidateProofs Buffer.ConvertProofs Buffer.ConvertProofs2
  Buffer.C09FullMonitor Buffer.ErrHandlerProofs Buffer.EHFullStackExact Buffer.EHFullCompleted
  Buffer.EHFullRetry Buffer.EHFullMon Buffer.EHFullMon3 Buffer.EHFullMonS Run.R09 Run.R16
  Run.R16Proofs.
Import ListNotations.
Open Scope Z_scope.

Definition retrying (m : meth) : Prop :=
  match m with MToByteSlice _ | MReadAt _ _ | MCloneCopy _ => True | _ => False end.

Lemma biu_origin : forall S ns b0 bf,
  biu (Some b0) S ns = Some bf -> bf = b0 \/ exists a, In a S /\ In (Replace bf) a.
Proof.
  assert (Hgen : forall S ns cur bf, biu cur S ns = Some bf ->
            cur = Some bf \/ exists a, In a S /\ In (Replace bf) a).
  { induction S as [|a S IH]; intros [|n ns] cur bf Hb; cbn [biu] in Hb; auto.
    destruct (IH _ _ _ Hb) as [Hc|(a1 & Hin & Hr)]; [|right; exists a1; split; [right; exact Hin|exact Hr]].
    destruct n as [|j]; [left; exact Hc|]. destruct (nth_error a j) as [[b|c]|] eqn:Hn; try discriminate.
    inv Hc. right. exists a. split; [left; reflexivity|]. eapply nth_error_In; eassumption. }
  intros S ns b0 bf Hb. destruct (Hgen _ _ _ _ Hb) as [Hc|Hx]; [inv Hc; auto|auto].
Qed.

Definition lens_logs (logs : list (list hev)) : list nat := map (fun l => length (oell l)) logs.
Lemma lens_logs_of w : lens_logs (logs_of w) = lens (lv w).
Proof. unfold lens_logs, logs_of, lens, lv. rewrite map_map. reflexivity. Qed.

Lemma in_replacements b a anss : In a anss -> In (Replace b) a -> In b (replacements anss).
Proof.
  intros Ha Hr. unfold replacements. apply in_flat_map. exists (Replace b). split; [|left; reflexivity].
  apply in_concat. exists a. auto.
Qed.

Lemma aligned_last S l : aligned S l -> S <> [] -> last (lens l) 0%nat = length (oel (last l hd0)).
Proof.
  intros Hal Hne. unfold lens. apply (last_map_ne (fun h => length (oel h))). intros E. rewrite E in Hal. inversion Hal. congruence.
Qed.

Section RetryFacts.
  Variable H : bytes -> bytes.
  Variable cfg : vcfg.
  Variable fuel : nat.

  Lemma plain_completed_valid b m :
    m <> MDiscard -> completed m (o_err (plain H cfg fuel b m)) = true ->
    snd (ucontent b) = EEof /\
    o_data (plain H cfg fuel b m) = expected_slice m (fst (ucontent b)) /\
    (match b with BBytes _ => True | _ => valid_bytes H cfg (fst (ucontent b)) end) /\
    match b with BError _ => False | _ => True end.
  Proof.
    intros Hm Hc. destruct b as [evs|evs a|d|x]; cbn [plain ucontent] in *.
    - destruct (chunk_reader_complete_implies_valid H cfg fuel evs m _ Hm eq_refl Hc) as ((He & Hl & Hh) & Hd).
      rsplit; auto. split; assumption.
    - destruct (ReaderBufferProofs.reader_complete_implies_valid H cfg fuel evs a m _ Hm eq_refl Hc) as ((He & Hl & Hh) & Hd).
      rsplit; auto. split; assumption.
    - rsplit; auto. apply byte_slice_buffer_expected. exact Hc.
    - rewrite error_buffer_never_completes in Hc by exact Hm. discriminate.
  Qed.

  (** the facts the monitor's clauses 2 and 6 ask for *)
  Definition retry_facts (b0 : bufscript) (anss : list (list answer)) (m : meth) (o : outcome16s) : Prop :=
    let ns := lens_logs (y_logs o) in
    let top := returned (last anss []) (last ns 0%nat) in
    (completed m (y_err o) = true ->
       exists bf, biu (Some b0) anss ns = Some bf /\ snd (ucontent bf) = EEof /\
                  y_data o = expected_slice m (fst (ucontent bf)) /\
                  (bytes_trusted H cfg b0 anss -> valid_bytes H cfg (fst (ucontent bf)))) /\
    (forall c, top = Some c -> y_err o = ECode c).

  Lemma trusted_origin b0 anss bf ns :
    biu (Some b0) anss ns = Some bf -> bytes_trusted H cfg b0 anss ->
    match bf with BBytes d => valid_bytes H cfg d | _ => True end.
  Proof.
    intros Hb Ht. destruct bf as [| |d|]; auto. apply Ht.
    destruct (biu_origin _ _ _ _ Hb) as [->|(a & Hin & Hr)]; [left; reflexivity|right; eapply in_replacements; eassumption].
  Qed.

  Lemma completed_facts b0 anss ns bf m d e :
    m <> MDiscard -> biu (Some b0) anss ns = Some bf ->
    d = o_data (plain H cfg fuel bf m) -> e = o_err (plain H cfg fuel bf m) -> completed m e = true ->
    snd (ucontent bf) = EEof /\ d = expected_slice m (fst (ucontent bf)) /\
    (bytes_trusted H cfg b0 anss -> valid_bytes H cfg (fst (ucontent bf))).
  Proof.
    intros Hm Hb -> -> Hc.
    destruct (plain_completed_valid _ _ Hm Hc) as (He & Hd & Hv & Hne). rsplit; auto.
    intros Ht. pose proof (trusted_origin _ _ _ _ Hb Ht) as Hto. destruct bf; auto.
  Qed.

  Theorem run_stack_retry_facts b0 anss m :
    retrying m -> anss <> [] -> y_err (run_stack H cfg fuel b0 anss m) <> EFuel ->
    retry_facts b0 anss m (run_stack H cfg fuel b0 anss m).
  Proof.
    intros Hm Hne. unfold run_stack.
    destruct (stack_handlers b0 _ _) as [b w] eqn:Hs. intros Hef.
    assert (HK0 : K b0 [] (w_dn (mkW [] [] [])) b0).
    { unfold K. cbn. split; [constructor|]. left. split; [right; auto|congruence]. }
    destruct (stacked_state b0 anss [] b0 _ b w Hs eq_refl HK0) as (HJ & HKf). cbn [app] in HJ, HKf.
    assert (Hmd : m <> MDiscard) by (destruct m; try contradiction; congruence).
    destruct (w_act w) as [|a act] eqn:Ea.
    - (* a buffer in a known state *)
      destruct (HKf eq_refl) as (Hal & HKc). cbn [y_err y_data y_logs] in *.
      assert (Hdn : w_dn w <> []).
      { intros E. rewrite E in Hal. inversion Hal as [E2|]. congruence. }
      unfold retry_facts. cbn [y_err y_data y_logs]. rewrite lens_logs_of. unfold lv.
      rewrite Ea, app_nil_r, (aligned_last _ _ Hal Hne). split.
      + intros Hc. destruct (plain_completed_valid b m Hmd Hc) as (He & Hd & Hv & Hnb).
        destruct HKc as [([(Hb & _)|(Hb & _)] & _)|(c & -> & _)]; try contradiction;
          (exists b; rsplit; auto; intros Ht; pose proof (trusted_origin _ _ _ _ Hb Ht); destruct b; auto).
      + intros c Hc. destruct HKc as [(_ & Hq)|(c0 & -> & _ & Hq)].
        * rewrite (Hq Hdn) in Hc. discriminate.
        * rewrite Hq in Hc. inv Hc. destruct m; try contradiction; reflexivity.
    - assert (Hnn : w_act w <> []) by (rewrite Ea; discriminate). rewrite <- Ea in *. specialize (HJ Hnn).
      assert (Hgen : forall m' d e cbs w', m' <> MDiscard ->
                try_stack H cfg fuel (Datatypes.S (answers_left (w_act w))) m' b w [] = (d, e, cbs, w') -> e <> EFuel ->
                (completed m' e = true ->
                   exists bf, biu (Some b0) anss (lens (lv w')) = Some bf /\ snd (ucontent bf) = EEof /\
                              d = expected_slice m' (fst (ucontent bf)) /\
                              (bytes_trusted H cfg b0 anss -> valid_bytes H cfg (fst (ucontent bf)))) /\
                (forall c, returned (last anss []) (last (lens (lv w')) 0%nat) = Some c -> e = ECode c)).
      { intros m' d e cbs w' Hm' Ht He.
        destruct (try_stack_J H cfg fuel anss b0 _ _ _ _ _ _ _ _ _ Ht HJ He) as (Hal & Hok & Hko).
        rewrite (aligned_last _ _ Hal Hne). split.
        - intros Hc. assert (Hop : op_done e = true) by (destruct e; try reflexivity; destruct m'; discriminate).
          destruct (Hok Hop) as (bf & Hb & Hd & Hee & _). exists bf.
          destruct (completed_facts _ _ _ _ _ _ _ Hm' Hb Hd Hee Hc) as (A & B & C). rsplit; auto.
        - intros c Hc. destruct (op_done e) eqn:Hop.
          + destruct (Hok eq_refl) as (_ & _ & _ & _ & Hq). rewrite Hq in Hc. discriminate.
          + destruct (Hko eq_refl) as (_ & c0 & -> & Hq). rewrite Hq in Hc. inv Hc. reflexivity. }
      unfold retry_facts. destruct m; try contradiction; cbn [ehs_method] in *.
      + destruct (try_stack _ _ _ _ _ _ _ _) as [[[d e] cbs] w'] eqn:Ht. cbn [y_err y_data y_logs] in *.
        rewrite lens_logs_of. exact (Hgen _ _ _ _ _ Hmd Ht Hef).
      + destruct (try_stack _ _ _ _ _ _ _ _) as [[[d e] cbs] w'] eqn:Ht. cbn [y_err y_data y_logs] in *.
        rewrite lens_logs_of. exact (Hgen _ _ _ _ _ Hmd Ht Hef).
      + destruct (try_stack _ _ _ _ _ _ _ _) as [[[d e] cbs] w'] eqn:Ht.
        assert (He : e <> EFuel) by (destruct e; cbn [y_err] in Hef; congruence).
        destruct (Hgen (MToByteSlice max) d e cbs w' ltac:(congruence) Ht He) as (A & B).
        destruct e; cbn [y_err y_data y_logs] in *; rewrite lens_logs_of; split; auto;
          intros Hc; discriminate.
  Qed.
End RetryFacts.

Definition dom16all (inp : sx) : Prop :=
  dom16 inp /\ y_err (out16 inp) <> EFuel /\
  bad_param (g_size (q_cfg (dec_case16 inp))) (q_meth (dec_case16 inp)) = false.

Theorem mon16_silent_on_model : forall inp, dom16all inp -> mon16 inp (run16 inp) = [].
Proof.
  intros inp (Hdom & Hef & Hbp).
  assert (Hk : EHFullPrefix.streaming (q_meth (dec_case16 inp)) \/ retrying (q_meth (dec_case16 inp)) \/
               q_meth (dec_case16 inp) = MDiscard) by (destruct (q_meth (dec_case16 inp)); cbn; auto).
  destruct Hk as [Hs|Hk]; [apply mon16_silent_on_model_streaming; unfold dom16s; auto|].
  pose proof Hdom as (Hne & Hwf & Hnf & Hpos).
  destruct (mon16 inp (run16 inp)) as [|k l] eqn:Hmon; [reflexivity|]. exfalso.
  assert (Hin : In k (mon16 inp (run16 inp))) by (rewrite Hmon; left; reflexivity). clear Hmon.
  pose proof (clause_1_silent_on_model inp Hne) as H1.
  destruct (clauses_8_9_silent_on_model inp) as (H8 & H9). pose proof (clause_10_silent_on_model inp) as H10.
  rewrite run16_out16 in *. unfold mon16 in Hin.
  set (c := dec_case16 inp) in *. set (o := out16 inp) in *.
  destruct (piece_of (q_b0 c) 0) as [p0 t0].
  destruct (stitch_stack p0 t0 (q_anss c)) as [[st term] offss].
  cbv zeta in Hin.
  rewrite H1 in Hin. rewrite H8, H9, H10 in Hin. rewrite Z.eqb_refl in Hin. cbv iota in Hin. cbn [app] in Hin.
  destruct Hk as [Hretry|Hd]; [|rewrite Hd in Hin; contradiction].
  assert (Hnd : is_discard (q_meth c) = false) by (destruct (q_meth c); try contradiction; reflexivity).
  assert (Hsb : match q_meth c with MIntoWriter | MToChunkReader _ _ _ | MToReader _ _ => true | _ => false end = false)
    by (destruct (q_meth c); try contradiction; reflexivity).
  rewrite Hnd, Hsb in Hin.
  pose proof (run_stack_retry_facts (lookup (q_tbl c)) (q_cfg c) (stack_fuel (q_b0 c) (q_anss c))
                (q_b0 c) (q_anss c) (q_meth c) Hretry Hne) as Hrf.
  change (run_stack (lookup (q_tbl c)) (q_cfg c) (stack_fuel (q_b0 c) (q_anss c)) (q_b0 c) (q_anss c) (q_meth c)) with o in Hrf.
  destruct (Hrf Hef) as (Hcomp & Htop).
  rewrite obs_offered_out, obs_code_out, obs_data_out in Hin.
  assert (Hns : map (@length Z) (map (map R16.code_of) (map oell (y_logs o))) = lens_logs (y_logs o))
    by (unfold lens_logs; rewrite !map_map; apply map_ext; intros; apply map_length).
  assert (Hj : length (last (map (map R16.code_of) (map oell (y_logs o))) []) = last (lens_logs (y_logs o)) 0%nat)
    by (rewrite <- Hns; change 0%nat with (@length Z []); symmetry; apply last_map).
  rewrite buffer_in_use_biu, Hns, Hj in Hin.
  rewrite (completes_completed _ _ Hpos) in Hin.
  apply in_app_or in Hin. destruct Hin as [Hin|Hin].
  - destruct (returned _ _) as [c'|] eqn:Hret; [|contradiction].
    rewrite (Htop _ eq_refl) in Hin. cbn [R16.code_of] in Hin. rewrite Z.eqb_refl in Hin. contradiction.
  - match type of Hin with In _ (if ?x then _ else _) => destruct x eqn:Hc6 end; [|contradiction].
    apply andb_true_iff in Hc6. destruct Hc6 as (Hdone & Htr).
    destruct (Hcomp Hdone) as (bf & Hb & He & Hd & Hv).
    rewrite Hb in Hin. destruct (ucontent bf) as [cont t]. cbn [fst snd] in *. subst t.
    rewrite (validb_valid _ _ _ (Hv (trusted_bytes _ _ _ _ Htr))), Hd in Hin.
    change (expected ?m cont) with (expected_slice m cont) in Hin. rewrite bytes_eqb_refl in Hin.
    cbn in Hin. contradiction.
Qed.
