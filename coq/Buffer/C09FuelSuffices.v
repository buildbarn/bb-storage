(** C09 — [script_fuel] suffices: for every script, digest, hash
    function and method whose loop parameters are positive ([good_param]: the
    maximum chunk size of ToChunkReader and every read buffer size of ToReader
    is at least 1), none of the three CAS buffer constructors runs out of fuel.
    Stated monotone in the fuel.

    The measure of a script is [measure evs] = sum (1 + |bs| per chunk, 1 per
    other event); [script_fuel evs = 16 + 4 * measure evs].  Every read of a
    scripted source consumes measure (C09FuelLoops.v), every decorator preserves
    that, and every loop returns something other than [EFuel] once its fuel
    exceeds the measure. *)
From Coq Require Import List ZArith NArith Bool Lia.
From BBS Require Import Buffer.Source Buffer.Validate Buffer.Convert
  Buffer.ValidateProofs Buffer.C09FuelLoops Run.R09.
Import ListNotations.
Open Scope nat_scope.

(** loop parameters under which every consumption loop makes progress *)
Definition good_param (m : meth) : bool :=
  match m with
  | MToChunkReader _ max _ => (1 <=? max)%N
  | MToReader caps _ => forallb (fun c => (1 <=? c)%N) caps
  | _ => true
  end.

Lemma script_fuel_measure evs : script_fuel evs = 16 + 4 * measure evs.
Proof. reflexivity. Qed.

Lemma caps_good caps : forallb (fun c => (1 <=? c)%N) caps = true ->
  Forall (fun c => (1 <= c)%N) caps /\ (1 <= last_cap caps)%N.
Proof.
  induction caps as [|c r IH]; cbn [forallb]; intros Hf.
  - split; [constructor|]. unfold last_cap. cbn [last]. lia.
  - apply andb_true_iff in Hf. destruct Hf as [Hc Hr]. apply N.leb_le in Hc. destruct (IH Hr) as [F L].
    split; [constructor; assumption|]. unfold last_cap in *. cbn [last]. destruct r; [exact Hc|exact L].
Qed.

Definition cmu (s : csrc) : nat := measure (c_rest s).
Definition ctrue (s : csrc) : Prop := True.
Definition rmu (s : rsrc) : nat := measure (r_rest s).
Definition rtrue (s : rsrc) : Prop := True.

Section Suffices.
  Variable H : bytes -> bytes.
  Variable cfg : vcfg.
  Variable fuel : nat.

  Notation IC := (Iv ctrue cmu fuel).
  Notation MC := (muv cmu).
  Notation rdv := (cv_read H cfg fuel).

  Lemma cv_read_prog : cprog (@length N) rdv IC MC.
  Proof. exact (vcr_read_prog _ _ _ _ H cfg fuel csrc_read_prog). Qed.

  Lemma cv_close_inv s : IC s -> IC (cv_close s) /\ MC (cv_close s) <= MC s.
  Proof. unfold Iv, muv, cv_close, cmu. intros (A & B & C). vsimp. cbn [csrc_close c_rest]. fin. Qed.

  Lemma cv_init_inv evs : measure evs < fuel -> IC (cv_init cfg evs) /\ MC (cv_init cfg evs) = measure evs.
  Proof. intros Hm. unfold Iv, muv, cv_init, vinit, cmu, ctrue. cbn [v_u v_err c_rest]. fin. Qed.

  Theorem chunk_fuel_suffices evs m : script_fuel evs <= fuel -> good_param m = true ->
    o_err (cas_chunk_reader H cfg fuel evs m) <> EFuel.
  Proof.
    intros Hf Hg. rewrite script_fuel_measure in Hf.
    assert (Hmf : measure evs < fuel) by lia.
    destruct (cv_init_inv evs Hmf) as [Hi0 Hm0].
    assert (Hlt0 : MC (cv_init cfg evs) < fuel) by lia.
    pose proof cv_read_prog as PV.
    destruct m; cbn [cas_chunk_reader good_param] in *.
    - (* ToByteSlice *)
      unfold to_byte_slice_cr. destruct (max <? g_size cfg)%N; [cbn; congruence|].
      destruct (drain rdv fuel [] (cv_init cfg evs)) as [[out e] s'] eqn:Hd.
      destruct (drain_fuel _ _ _ _ PV fuel _ _ _ _ _ Hi0 Hlt0 Hd) as (A & _).
      destruct e; cbn; congruence.
    - (* IntoWriter *)
      unfold into_writer_cr.
      destruct (drain rdv fuel [] (cv_init cfg evs)) as [[out e] s'] eqn:Hd.
      destruct (drain_fuel _ _ _ _ PV fuel _ _ _ _ _ Hi0 Hlt0 Hd) as (A & _).
      destruct e; cbn; congruence.
    - (* ReadAt *)
      unfold read_at_cr.
      destruct (offset_init_fuel _ cv_close _ _ PV cv_close_inv fuel off _ Hi0 Hlt0) as [Io0 Mo0].
      set (o0 := offset_init rdv cv_close fuel off (cv_init cfg evs)) in *.
      destruct (read_at_fill rdv fuel plen [] o0) as [[got e] o1] eqn:Hfill.
      pose proof (Nat.le_lt_trans _ _ _ Mo0 Hlt0) as Hlo.
      destruct (read_at_fill_fuel _ _ _ PV fuel _ _ _ _ _ _ Io0 Hlo Hfill) as (A & B & C).
      destruct e; try (cbn; congruence).
      destruct (drain (offset_read rdv) fuel [] o1) as [[x e2] o2] eqn:Hd.
      pose proof (Nat.le_lt_trans _ _ _ C Hlo) as Hl1.
      destruct (drain_fuel _ _ _ _ (offset_read_prog _ _ _ PV) fuel _ _ _ _ _ B Hl1 Hd) as (A2 & _).
      destruct e2; cbn; congruence.
    - (* ToChunkReader *)
      apply N.leb_le in Hg.
      destruct (valid_offset (g_size cfg) off); [|cbn; congruence].
      destruct (offset_init_fuel _ cv_close _ _ PV cv_close_inv fuel off _ Hi0 Hlt0) as [Io0 Mo0].
      set (o0 := offset_init rdv cv_close fuel off (cv_init cfg evs)) in *.
      pose proof (norm_read_prog _ _ _ (offset_read_prog _ _ _ PV) fuel max Hg) as PN.
      destruct (drain (norm_read (offset_read rdv) fuel max) fuel [] (mkNst o0 [])) as [[out e] n] eqn:Hd.
      cbn beta iota zeta.
      destruct (extra_reads (norm_read (offset_read rdv) fuel max) extra n) as [ex n2].
      cbn beta iota zeta. cbn [o_err cv_out].
      refine (proj1 (drain_fuel _ _ _ _ PN fuel _ _ _ _ _ _ _ Hd)).
      + unfold Inm. cbn [n_u]. split; [exact Io0|lia].
      + unfold mun. cbn [n_u n_last length]. lia.
    - (* ToReader *)
      destruct (caps_good _ Hg) as [Hcaps Hlast].
      pose proof (cb_read_prog _ _ _ PV fuel) as PB.
      destruct (rconsume (cb_read rdv fuel) fuel caps (last_cap caps) [] (mkCbst (cv_init cfg evs) []))
        as [[out e] s] eqn:Hrc.
      cbn beta iota zeta.
      destruct (rextra (cb_read rdv fuel) extra (last_cap caps) s) as [ex s2].
      cbn beta iota zeta. cbn [o_err cv_out].
      refine (proj1 (rconsume_fuel _ _ _ PB fuel _ _ _ _ _ _ _ Hcaps Hlast _ _ Hrc)).
      + unfold Icb. cbn [cb_u]. split; [exact Hi0|exact Hlt0].
      + unfold mucb. cbn [cb_u cb_last length]. lia.
    - (* CloneCopy *)
      unfold to_byte_slice_cr, clone_copy_of. destruct (max <? g_size cfg)%N; [cbn; congruence|].
      destruct (drain rdv fuel [] (cv_init cfg evs)) as [[out e] s'] eqn:Hd.
      destruct (drain_fuel _ _ _ _ PV fuel _ _ _ _ _ Hi0 Hlt0 Hd) as (A & _).
      destruct e; cbn; congruence.
    - cbn. congruence.
  Qed.

  Notation IR := (Iv rtrue rmu fuel).
  Notation MR := (muv rmu).
  Notation rdr := (rv_read H cfg fuel).

  Lemma rv_read_prog : rprog rdr IR MR.
  Proof. exact (vr_read_prog _ _ _ H cfg fuel rsrc_read_prog). Qed.

  Lemma rv_init_inv evs attach :
    measure evs < fuel -> IR (rv_init cfg evs attach) /\ MR (rv_init cfg evs attach) = measure evs.
  Proof. intros Hm. unfold Iv, muv, rv_init, vinit, rmu, rtrue. cbn [v_u v_err r_rest]. fin. Qed.

  Lemma to_byte_slice_r_fuel max st0 r st : IR st0 -> MR st0 < fuel ->
    to_byte_slice_r H cfg fuel max st0 = (r, st) -> snd r <> EFuel.
  Proof.
    unfold to_byte_slice_r. cbv beta zeta. intros Hi Hm Hr.
    destruct (max <? g_size cfg)%N. { inv Hr. cbn. congruence. }
    destruct (0 <? g_size cfg)%N.
    - destruct (read_full rdr fuel (g_size cfg) st0) as [[data e] st1] eqn:Hrf.
      destruct (read_full_fuel _ _ _ rv_read_prog fuel _ _ _ _ _ Hi Hm Hrf) as (A & _).
      destruct e; inv' Hr; cbn; congruence.
    - destruct (rdr 0%N st0) as [[d e] st1] eqn:Hr0.
      destruct (rv_read_prog _ _ _ _ _ Hi Hr0) as (A & _).
      destruct e; inv' Hr; cbn; congruence.
  Qed.

  Theorem reader_fuel_suffices evs attach m : script_fuel evs <= fuel -> good_param m = true ->
    o_err (cas_reader H cfg fuel evs attach m) <> EFuel.
  Proof.
    intros Hf Hg. rewrite script_fuel_measure in Hf.
    assert (Hmf : measure evs < fuel) by lia.
    destruct (rv_init_inv evs attach Hmf) as [Hi0 Hm0].
    assert (Hlt0 : MR (rv_init cfg evs attach) < fuel) by lia.
    pose proof rv_read_prog as PV.
    destruct m; cbn [cas_reader good_param] in *.
    - (* ToByteSlice *)
      destruct (to_byte_slice_r H cfg fuel max (rv_init cfg evs attach)) as [[out e] st] eqn:Hr.
      exact (to_byte_slice_r_fuel _ _ _ _ Hi0 Hlt0 Hr).
    - (* IntoWriter *)
      destruct (copy rdr fuel (rv_init cfg evs attach)) as [[out e] st] eqn:Hc.
      destruct (copy_fuel _ _ _ PV fuel _ _ _ _ Hi0 Hlt0 Hc) as (A & _). cbn. exact A.
    - (* ReadAt *)
      destruct (discard_from_reader rdr fuel off (rv_init cfg evs attach)) as [e0 st] eqn:Hd.
      destruct (discard_from_reader_fuel _ _ _ PV fuel _ _ _ _ Hi0 Hlt0 Hd) as (A & B & C).
      destruct e0; try (cbn; congruence).
      destruct (read_full rdr fuel plen st) as [[got e] st1] eqn:Hrf.
      assert (Hl1 : MR st < fuel) by lia.
      destruct (read_full_fuel _ _ _ PV fuel _ _ _ _ _ B Hl1 Hrf) as (A1 & B1 & C1 & _).
      destruct e; try (cbn; congruence).
      destruct (copy rdr fuel st1) as [[x e2] st2] eqn:Hc.
      assert (Hl2 : MR st1 < fuel) by lia.
      destruct (copy_fuel _ _ _ PV fuel _ _ _ _ B1 Hl2 Hc) as (A2 & _).
      destruct e2; cbn; congruence.
    - (* ToChunkReader *)
      apply N.leb_le in Hg.
      destruct (valid_offset (g_size cfg) off); [|cbn; congruence].
      destruct (discard_from_reader rdr fuel off (rv_init cfg evs attach)) as [e0 st] eqn:Hd.
      destruct (discard_from_reader_fuel _ _ _ PV fuel _ _ _ _ Hi0 Hlt0 Hd) as (A & B & C).
      destruct e0; try (cbn; congruence).
      pose proof (rb_read_prog _ _ _ PV fuel max Hg) as PB.
      destruct (drain (rb_read rdr fuel max) fuel [] (mkRbst st ENone)) as [[out e] s] eqn:Hdr.
      cbn beta iota zeta.
      destruct (extra_reads (rb_read rdr fuel max) extra s) as [ex s2].
      cbn beta iota zeta. cbn [o_err rv_out].
      refine (proj1 (drain_fuel _ _ _ _ PB fuel _ _ _ _ _ _ _ Hdr)).
      + unfold Irb. cbn [rb_u rb_err]. rsplit; [exact B|congruence|lia].
      + unfold murb. cbn [rb_u rb_err is_none]. lia.
    - (* ToReader *)
      destruct (caps_good _ Hg) as [Hcaps Hlast].
      destruct (rconsume rdr fuel caps (last_cap caps) [] (rv_init cfg evs attach)) as [[out e] s] eqn:Hrc.
      cbn beta iota zeta.
      destruct (rextra rdr extra (last_cap caps) s) as [ex s2].
      cbn beta iota zeta. cbn [o_err rv_out].
      exact (proj1 (rconsume_fuel _ _ _ PV fuel _ _ _ _ _ _ _ Hcaps Hlast Hi0 Hlt0 Hrc)).
    - (* CloneCopy *)
      destruct (to_byte_slice_r H cfg fuel max (rv_init cfg evs attach)) as [r st] eqn:Hr.
      pose proof (to_byte_slice_r_fuel _ _ _ _ Hi0 Hlt0 Hr) as A.
      unfold clone_copy_of. destruct (snd r); cbn; congruence.
    - cbn. congruence.
  Qed.

  Theorem byte_slice_fuel_suffices data m : length data < fuel -> good_param m = true ->
    o_err (cas_byte_slice H cfg fuel data m) <> EFuel.
  Proof.
    intros Hl Hg. unfold cas_byte_slice. cbv beta zeta.
    assert (E : forall e cbs k, e <> EFuel -> o_err (error_buffer e cbs k m) <> EFuel)
      by (intros; destruct m; cbn; congruence).
    destruct (negb (g_size cfg =? lenN data)%N); [apply E; congruence|].
    destruct (negb (bytes_eqb (g_hash cfg) (H data))); [apply E; congruence|].
    clear E. destruct m; cbn [byte_slice_buffer good_param] in *.
    - destruct (max <? lenN data)%N; cbn; congruence.
    - cbn. congruence.
    - destruct (off <? 0)%Z; [cbn; congruence|].
      destruct (lenN data <? Z.to_N off)%N; [cbn; congruence|].
      cbn [o_err]. destruct (lenN (takeN plen (dropN (Z.to_N off) data)) <? plen)%N; congruence.
    - apply N.leb_le in Hg.
      destruct (valid_offset (lenN data) off); [|cbn; congruence].
      destruct (drain (bs_read max) fuel [] (dropN (Z.to_N off) data)) as [[out e] s] eqn:Hd.
      cbn beta iota zeta.
      destruct (extra_reads (bs_read max) extra s) as [ex s2].
      cbn beta iota zeta. cbn [o_err].
      refine (proj1 (drain_fuel _ _ _ _ (bs_read_prog max Hg) fuel _ _ _ _ _ I _ Hd)).
      pose proof (len_dropN_le (Z.to_N off) data). lia.
    - destruct (caps_good _ Hg) as [Hcaps Hlast].
      destruct (rconsume bb_read fuel caps (last_cap caps) [] data) as [[out e] s] eqn:Hrc.
      cbn beta iota zeta.
      destruct (rextra bb_read extra (last_cap caps) s) as [ex s2].
      cbn beta iota zeta. cbn [o_err].
      exact (proj1 (rconsume_fuel _ _ _ bb_read_prog fuel _ _ _ _ _ _ _ Hcaps Hlast I Hl Hrc)).
    - destruct (max <? lenN data)%N; cbn; congruence.
    - cbn. congruence.
  Qed.
End Suffices.

(** the byte-slice instance [run09] uses: the data is the script's content *)
Theorem byte_slice_script_fuel_suffices H cfg fuel evs m : script_fuel evs <= fuel -> good_param m = true ->
  o_err (cas_byte_slice H cfg fuel (fst (content evs)) m) <> EFuel.
Proof.
  intros Hf Hg. rewrite script_fuel_measure in Hf. apply byte_slice_fuel_suffices; [|exact Hg].
  pose proof (content_le_measure evs). lia.
Qed.
