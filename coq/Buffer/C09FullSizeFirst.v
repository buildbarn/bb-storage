(** C09 — size is checked before the hash.

    The hash function enters the model only through the comparison of
    [H acc] with the digest's hash.  For every constructor, method, script and
    fuel: the whole observable outcome is the same for any two hash functions
    that agree on the script's complete content — and that one point matters
    only if the content ends with io.EOF and has exactly the digest's size.
    Hence for content of the wrong size (or ending in an I/O error) the hash
    is never consulted: the outcome does not depend on the hash function. *)
From Coq Require Import List ZArith NArith Bool Lia.
From BBS Require Import Buffer.Source Buffer.Validate Buffer.Convert Buffer.StreamProofs
  Buffer.ValidateProofs Buffer.ValidateReaderProofs Buffer.ReaderBufferProofs
  Buffer.C09FullCombinators Buffer.C09FullChunk Buffer.C09FullReaderBuf.
Import ListNotations.
Open Scope N_scope.

Definition ccont (u : csrc) : bytes * err := content (c_rest u).

Lemma csrc_spec u c e u' : csrc_read u = ((c, e), u') ->
  match e with
  | ENone => ccont u = (c ++ fst (ccont u'), snd (ccont u'))
  | _ => ccont u = ([], e)
  end.
Proof.
  unfold csrc_read, ccont. destruct (c_rest u) as [|[bs|x|] r] eqn:Er; intros Hr; inv Hr; cbn [c_rest content]; try reflexivity.
  destruct (content r); reflexivity.
Qed.

Section SizeFirst.
  Variables H1 H2 : bytes -> bytes.
  Variable cfg : vcfg.
  Variable fuel : nat.
  Variable evs : list ev.
  (** the two hash functions agree where it can matter *)
  Hypothesis Hyp : snd (content evs) = EEof -> lenN (fst (content evs)) = g_size cfg ->
                   H1 (fst (content evs)) = H2 (fst (content evs)).

  Definition cdata (st : cvs) : Prop :=
    fst (content evs) = v_acc st ++ fst (ccont (v_u st)) /\ snd (content evs) = snd (ccont (v_u st)) /\
    v_rem st + lenN (v_acc st) = g_size cfg.
  Definition Qc (st : cvs) : Prop := v_err st <> ENone \/ cdata st.

  Lemma finalize_indep : forall f st, cdata st -> v_rem st = 0 ->
    finalize_loop H1 cfg csrc_read f st = finalize_loop H2 cfg csrc_read f st.
  Proof.
    induction f as [|f IH]; intros st (Hf & Hs & Hl) Hr; cbn [finalize_loop]; [reflexivity|].
    destruct (csrc_read (v_u st)) as [[chunk e] u'] eqn:Hrd. pose proof (csrc_spec _ _ _ _ Hrd) as Hsp.
    destruct e; try reflexivity.
    - cbn [v_set_u v_rem]. destruct (v_rem st <? lenN chunk) eqn:Hlt; [reflexivity|].
      apply N.ltb_ge in Hlt. assert (chunk = []) by (apply lenN_zero; lia). subst chunk.
      apply IH; [|exact Hr]. unfold cdata. cbn [v_set_u v_acc v_u v_rem].
      rewrite Hsp in Hf, Hs. cbn [fst snd app] in Hf, Hs. auto.
    - cbn [v_set_u v_acc]. rewrite Hsp in Hf, Hs. cbn [fst snd] in Hf, Hs. rewrite app_nil_r in Hf.
      rewrite <- Hf, Hyp; [reflexivity|exact Hs|]. rewrite Hf. lia.
  Qed.

  Lemma maybe_finalize_indep st : cdata st ->
    maybe_finalize H1 cfg csrc_read fuel st = maybe_finalize H2 cfg csrc_read fuel st.
  Proof.
    intros Hd. unfold maybe_finalize. destruct (0 <? v_rem st) eqn:Hlt; [reflexivity|].
    apply N.ltb_ge in Hlt. apply finalize_indep; [exact Hd|lia].
  Qed.

  Lemma maybe_finalize_none H st st' : maybe_finalize H cfg csrc_read fuel st = (ENone, st') -> st' = st.
  Proof.
    unfold maybe_finalize. destruct (0 <? v_rem st); [intros Hx; inv Hx; reflexivity|].
    intros Hx. exfalso. revert st Hx. induction fuel as [|f IH]; intros st Hx; cbn [finalize_loop] in Hx; [discriminate|].
    destruct (csrc_read (v_u st)) as [[chunk e] u']. destruct e; try discriminate.
    - destruct (v_rem (v_set_u st u') <? lenN chunk); [discriminate|]. eapply IH; eassumption.
    - destruct (bytes_eqb _ _); discriminate.
  Qed.

  Lemma Qc_read : agree Qc (cv_read H1 cfg fuel) (cv_read H2 cfg fuel).
  Proof.
    intros st HQ. unfold cv_read, vcr_read.
    destruct (v_err st) eqn:Herr; try (apply same_refl; cbn [snd]; left; congruence).
    destruct HQ as [HQ|Hd]; [congruence|].
    unfold vcr_do_read. rewrite <- (maybe_finalize_indep st Hd).
    destruct (maybe_finalize H1 cfg csrc_read fuel st) as [e0 st0] eqn:Hmf.
    destruct e0; try (apply same_refl; cbn; left; cbn; congruence).
    apply maybe_finalize_none in Hmf. subst st0.
    destruct (csrc_read (v_u st)) as [[chunk e1] u'] eqn:Hrd. pose proof (csrc_spec _ _ _ _ Hrd) as Hsp.
    destruct e1; try (apply same_refl; cbn; left; cbn; congruence).
    cbn [v_set_u v_rem v_u v_acc v_err v_cbs].
    destruct (v_rem st <? lenN chunk) eqn:Hlt; [apply same_refl; cbn; left; cbn; congruence|].
    apply N.ltb_ge in Hlt.
    set (st1 := mkVst u' (v_rem st - lenN chunk) (v_acc st ++ chunk) (v_err st) (v_cbs st)).
    assert (Hd1 : cdata st1).
    { destruct Hd as (Hf & Hs & Hl). unfold cdata, st1. cbn [v_acc v_u v_rem].
      rewrite Hsp in Hf, Hs. cbn [fst snd] in Hf, Hs. rewrite <- app_assoc, lenN_app. rsplit; auto. lia. }
    rewrite <- (maybe_finalize_indep st1 Hd1).
    destruct (maybe_finalize H1 cfg csrc_read fuel st1) as [e2 st2] eqn:Hmf2.
    destruct e2; try (apply same_refl; cbn; left; cbn; congruence).
    apply maybe_finalize_none in Hmf2. subst st2. apply same_refl. cbn [snd]. right. exact Hd1.
  Qed.

  Lemma Qc_close st : Qc st -> Qc (cv_close st).
  Proof. intros [Hq|Hq]; [left; exact Hq|right; exact Hq]. Qed.

  Lemma Qc_init : Qc (cv_init cfg evs).
  Proof. right. unfold cdata, cv_init, vinit, ccont. cbn. rsplit; auto. unfold lenN. cbn. lia. Qed.

  Theorem chunk_hash_only_at_content m :
    cas_chunk_reader H1 cfg fuel evs m = cas_chunk_reader H2 cfg fuel evs m.
  Proof. exact (proj1 (cas_chunk_reader_agree H1 H2 cfg fuel Qc Qc_read Qc_close evs m Qc_init)). Qed.

  Variable attach : bool.

  Lemma vr_compare_indep (st : rvs) :
    fst (content evs) = v_acc st -> snd (content evs) = EEof -> lenN (v_acc st) = g_size cfg ->
    vr_compare H1 cfg st = vr_compare H2 cfg st.
  Proof. intros Hf Hs Hl. unfold vr_compare. rewrite <- Hf, Hyp; [reflexivity|exact Hs|]. rewrite Hf. exact Hl. Qed.

  Lemma rv_read_indep cap (st : rvs) out :
    RInv H1 cfg rsrc rcont (mkRsrc evs attach 0) st out ->
    rv_read H1 cfg fuel cap st = rv_read H2 cfg fuel cap st.
  Proof.
    intros [_ Hi]. unfold rv_read, vr_read. destruct (v_err st); try reflexivity.
    destruct Hi as (Hf & Hs & <- & Hl & _). change (rcont (mkRsrc evs attach 0)) with (content evs) in Hf, Hs.
    f_equal. unfold vr_do_read.
    destruct (rsrc_read cap (v_u st)) as [[data re] u'] eqn:Hrd. pose proof (rsrc_spec _ _ _ _ _ Hrd) as Hsp.
    cbn [v_set_u v_rem v_u v_acc v_err v_cbs].
    destruct (v_rem st <? lenN data) eqn:Hbig; [reflexivity|]. apply N.ltb_ge in Hbig.
    destruct re; try reflexivity.
    + destruct (v_rem st - lenN data =? 0) eqn:Hz; [|reflexivity]. apply N.eqb_eq in Hz.
      destruct (read_full rsrc_read fuel 1 u') as [[fin fe] u''] eqn:Hrf. unfold read_full in Hrf.
      destruct (read_full_one _ rsrc_read rcont rsrc_spec rsrc_no_unexp _ _ _ _ _ Hrf) as (_ & Hm).
      cbn [v_set_u v_rem v_u v_acc v_err v_cbs]. rewrite Hz.
      destruct fe; try reflexivity; try contradiction.
      * destruct (0 <? lenN fin) eqn:Hfl; [reflexivity|]. exfalso. apply Hm.
        apply N.ltb_ge in Hfl. apply lenN_zero. lia.
      * destruct Hm as (-> & Hc). change (0 <? lenN []) with false. cbn iota. unfold v_set_u. cbn [v_rem v_u v_acc v_err v_cbs].
        rewrite vr_compare_indep; [reflexivity|..]; cbn [v_acc].
        -- rewrite Hf, Hsp. cbn [fst]. rewrite Hc. cbn [fst]. now rewrite app_nil_r.
        -- rewrite Hs, Hsp. cbn [snd]. rewrite Hc. reflexivity.
        -- rewrite lenN_app. lia.
    + destruct (negb (v_rem st - lenN data =? 0)) eqn:Hz; [reflexivity|].
      apply negb_false_iff, N.eqb_eq in Hz.
      rewrite (vr_compare_indep (mkVst u' (v_rem st - lenN data) (v_acc st ++ data) (v_err st) (v_cbs st))); [reflexivity|..]; cbn [v_acc].
      * rewrite Hf, Hsp. reflexivity.
      * rewrite Hs, Hsp. reflexivity.
      * rewrite lenN_app. lia.
  Qed.

  Lemma Pr_read_indep :
    ragree (Pr H1 cfg evs attach) (rv_read H1 cfg fuel) (rv_read H2 cfg fuel).
  Proof.
    intros cap st HP. destruct (Pr_read H1 cfg fuel evs attach cap st HP) as [_ HP'].
    split; [|exact HP']. destruct HP as (out & [[Hi _] _]). exact (rv_read_indep cap st out Hi).
  Qed.

  Theorem reader_hash_only_at_content m :
    cas_reader H1 cfg fuel evs attach m = cas_reader H2 cfg fuel evs attach m.
  Proof.
    exact (proj1 (cas_reader_agree H1 H2 cfg fuel _ Pr_read_indep (Pr_close H1 cfg evs attach) evs attach m
                    (Pr_init H1 cfg evs attach))).
  Qed.
End SizeFirst.

Theorem chunk_size_before_hash H1 H2 cfg fuel evs m :
  ~ (snd (content evs) = EEof /\ lenN (fst (content evs)) = g_size cfg) ->
  cas_chunk_reader H1 cfg fuel evs m = cas_chunk_reader H2 cfg fuel evs m.
Proof. intros Hn. apply chunk_hash_only_at_content. intros A B. exfalso. apply Hn. auto. Qed.

Theorem reader_size_before_hash H1 H2 cfg fuel evs attach m :
  ~ (snd (content evs) = EEof /\ lenN (fst (content evs)) = g_size cfg) ->
  cas_reader H1 cfg fuel evs attach m = cas_reader H2 cfg fuel evs attach m.
Proof. intros Hn. apply reader_hash_only_at_content. intros A B. exfalso. apply Hn. auto. Qed.

Theorem byte_slice_hash_only_at_content H1 H2 cfg fuel data m :
  (lenN data = g_size cfg -> H1 data = H2 data) ->
  cas_byte_slice H1 cfg fuel data m = cas_byte_slice H2 cfg fuel data m.
Proof.
  intros Hyp. unfold cas_byte_slice. destruct (g_size cfg =? lenN data) eqn:Es; cbn [negb]; [|reflexivity].
  apply N.eqb_eq in Es. rewrite Hyp by auto. reflexivity.
Qed.

Theorem byte_slice_size_before_hash H1 H2 cfg fuel data m :
  lenN data <> g_size cfg ->
  cas_byte_slice H1 cfg fuel data m = cas_byte_slice H2 cfg fuel data m.
Proof. intros Hn. apply byte_slice_hash_only_at_content. intros A. contradiction. Qed.
