(** C16 — no duplicated and no skipped range: EVERY buffer
    kind of the model (chunk-reader backed, reader backed with EOF / errors
    attached to data or not, byte slices, error buffers, buffers whose opening
    at the delivered offset fails), any fuel.

    Method: a "carrier law".  A reader state [s] carries the remaining content
    [C] ([I C s]) when every read hands out a prefix of [C] and leaves a state
    that carries the rest, and io.EOF is reported only when nothing is left.
    The law is pushed through every decorator of the unvalidated paths
    (offset, normalizing, reader-backed chunk reader with io.ReadFull,
    io.CopyN(io.Discard), chunk-reader-backed reader); running out of fuel is
    just another error, so no fuel hypothesis is needed. *)
From Coq Require Import List ZArith NArith Bool Lia.
From BBS Require Import Buffer.Source Buffer.Convert Buffer.ErrHandler Buffer.StreamProofs
  Buffer.ValidateProofs Buffer.ValidateReaderProofs Buffer.ReaderBufferProofs
  Buffer.ErrHandlerProofs.
Import ListNotations.
Open Scope N_scope.

(** chunk readers and readers that never attach an error to data: nothing is
    read after the first event that is not a chunk, so only the [content]
    matters: a prefix of [C], all of it if the script ends with io.EOF *)
Definition ccar (C : bytes) (evs : list ev) : Prop :=
  exists rest, C = fst (content evs) ++ rest /\ (snd (content evs) = EEof -> rest = []).

(** readers that hand out an error together with data ([r_attach]): io.ReadFull
    and io.CopyN drop an error that arrives with the last byte they wanted, and
    the next read continues with what FOLLOWS that error in the script.  Such a
    reader carries [C] when every chunk, wherever it stands, is the next piece
    of [C] and io.EOF (an Eof event or the end of the script) comes only when
    all of [C] has been handed out. *)
Fixpoint rcar (C : bytes) (evs : list ev) : Prop :=
  match evs with
  | [] => C = []
  | Chunk bs :: r => exists C', C = bs ++ C' /\ rcar C' r
  | Err _ :: r => rcar C r
  | Eof :: r => C = [] /\ rcar C r
  end.

Lemma rcar_ccar C evs : rcar C evs -> ccar C evs.
Proof.
  revert C. induction evs as [|[bs|c|] r IH]; intros C Hc; cbn [rcar] in Hc; unfold ccar; cbn [content].
  - subst. exists []. auto.
  - destruct Hc as (C' & -> & Hc). destruct (IH _ Hc) as (rest & -> & Hr).
    destruct (content r) as [c0 e0]. cbn [fst snd] in *. exists rest. rewrite app_assoc. auto.
  - exists C. split; [reflexivity|discriminate].
  - destruct Hc as (-> & _). exists []. auto.
Qed.

Definition carries_full (C : bytes) (b : bufscript) : Prop :=
  match b with
  | BChunk evs => ccar C evs
  | BReader evs attach => if attach then rcar C evs else ccar C evs
  | BBytes d => d = C
  | BError _ => True
  end.
Definition ans_carries (C : bytes) (a : answer) : Prop :=
  match a with Replace b => carries_full C b | Fail _ => True end.

Lemma carries_carries_full C b : carries C b -> carries_full C b.
Proof. destruct b; cbn; auto. contradiction. Qed.

(** chunk readers: an error comes without data *)
Definition claw {S} (rd : S -> (bytes * err) * S) (I : bytes -> S -> Prop) : Prop :=
  forall s c e s' C, rd s = ((c, e), s') -> I C s ->
    exists C', C = c ++ C' /\ (e = ENone -> I C' s') /\ (e = EEof -> C' = []) /\ (e <> ENone -> c = []).

(** io.Readers, weak form: nothing is known about the state after an error *)
Definition rlaw {S} (rd : N -> S -> (bytes * err) * S) (I : bytes -> S -> Prop) : Prop :=
  forall cap s c e s' C, rd cap s = ((c, e), s') -> I C s ->
    exists C', C = c ++ C' /\ (e = ENone -> I C' s') /\ (e = EEof -> C' = []).

(** io.Readers, strong form (what io.ReadFull and io.CopyN need): at most [cap]
    bytes; never io.ErrUnexpectedEOF; after an error that came WITH data the
    state still carries the rest *)
Definition rlaw_strong {S} (rd : N -> S -> (bytes * err) * S) (I : bytes -> S -> Prop) : Prop :=
  forall cap s c e s' C, rd cap s = ((c, e), s') -> I C s ->
    lenN c <= cap /\ e <> EUnexp /\
    exists C', C = c ++ C' /\ (e = EEof -> C' = []) /\ (e = ENone \/ c <> [] -> I C' s').

Lemma rlaw_strong_weak {S} (rd : N -> S -> (bytes * err) * S) I : rlaw_strong rd I -> rlaw rd I.
Proof.
  intros Hl cap s c e s' C Hr Hi. destruct (Hl _ _ _ _ _ _ Hr Hi) as (_ & _ & C' & E & He & Hn).
  exists C'. rsplit; auto.
Qed.

Section ChunkLawStreams.
  Variable S : Type.
  Variable rd : S -> (bytes * err) * S.
  Variable I : bytes -> S -> Prop.
  Hypothesis Hlaw : claw rd I.

  Lemma claw_pulls s p s' : pulls rd s p s' -> forall C, I C s -> exists C', C = p ++ C' /\ I C' s'.
  Proof.
    induction 1 as [s|s c s1 bs s2 Hr _ IH]; intros C Hi; [exists C; auto|].
    destruct (Hlaw _ _ _ _ _ Hr Hi) as (C1 & -> & Hn & _). destruct (IH _ (Hn eq_refl)) as (C' & -> & Hi').
    exists C'. rewrite app_assoc. auto.
  Qed.
  Lemma claw_drains s p t s' :
    drains rd s p t s' -> forall C, I C s -> exists C', C = p ++ C' /\ (t = EEof -> C' = []).
  Proof.
    induction 1 as [s c e s1 Hr Hne|s c s1 bs e s2 Hr _ IH]; intros C Hi.
    - destruct (Hlaw _ _ _ _ _ Hr Hi) as (C1 & -> & _ & He & Hc). rewrite (Hc Hne). exists C1. auto.
    - destruct (Hlaw _ _ _ _ _ Hr Hi) as (C1 & -> & Hn & _). destruct (IH _ (Hn eq_refl)) as (C' & -> & He).
      exists C'. rewrite app_assoc. auto.
  Qed.
End ChunkLawStreams.

Section ReaderLawStreams.
  Variable S : Type.
  Variable rd : N -> S -> (bytes * err) * S.
  Variable I : bytes -> S -> Prop.
  Hypothesis Hlaw : rlaw rd I.
  Lemma rlaw_rpulls s p s' : rpulls rd s p s' -> forall C, I C s -> exists C', C = p ++ C' /\ I C' s'.
  Proof.
    induction 1 as [s|cap s c s1 bs s2 Hr _ IH]; intros C Hi; [exists C; auto|].
    destruct (Hlaw _ _ _ _ _ _ Hr Hi) as (C1 & -> & Hn & _). destruct (IH _ (Hn eq_refl)) as (C' & -> & Hi').
    exists C'. rewrite app_assoc. auto.
  Qed.
  Lemma rlaw_rdrains s p t s' :
    rdrains rd s p t s' -> forall C, I C s -> exists C', C = p ++ C' /\ (t = EEof -> C' = []).
  Proof.
    induction 1 as [cap s c e s1 Hr Hne|cap s c s1 bs e s2 Hr _ IH]; intros C Hi.
    - destruct (Hlaw _ _ _ _ _ _ Hr Hi) as (C1 & -> & _ & He). exists C1. auto.
    - destruct (Hlaw _ _ _ _ _ _ Hr Hi) as (C1 & -> & Hn & _). destruct (IH _ (Hn eq_refl)) as (C' & -> & He).
      exists C'. rewrite app_assoc. auto.
  Qed.
End ReaderLawStreams.

Definition eof_empty (e : err) (C : bytes) : Prop := e = EEof -> C = [].
Lemma eof_empty_eof C : eof_empty EEof C -> C = [].
Proof. intros Hx. exact (Hx eq_refl). Qed.

Section OverChunk.
  Variable S : Type.
  Variable rd : S -> (bytes * err) * S.
  Variable cl : S -> S.
  Variable I : bytes -> S -> Prop.
  Hypothesis Hlaw : claw rd I.

  (** newOffsetChunkReader *)
  Lemma discard_law fuel : forall off s prefix e s' C,
    discard_from_chunk_reader rd fuel off s = ((prefix, e), s') -> I C s ->
    match e with
    | ENone => exists C1, dropN off C = prefix ++ C1 /\ I C1 s'
    | EEof => lenN C < off
    | _ => True
    end.
  Proof.
    induction fuel as [|f IH]; intros off s prefix e s' C Hd Hi; cbn [discard_from_chunk_reader] in Hd;
      destruct (off =? 0) eqn:E0.
    - apply N.eqb_eq in E0. subst. inv Hd. exists C. rewrite dropN_0. auto.
    - inv Hd. exact Logic.I.
    - apply N.eqb_eq in E0. subst. inv Hd. exists C. rewrite dropN_0. auto.
    - apply N.eqb_neq in E0. destruct (rd s) as [[c e0] s1] eqn:Hr.
      destruct (Hlaw _ _ _ _ _ Hr Hi) as (C' & -> & Hn & He & Hc).
      destruct e0.
      + destruct (off <? lenN c) eqn:Hlt.
        * apply N.ltb_lt in Hlt. inv Hd. exists C'. rewrite dropN_app by lia. auto.
        * apply N.ltb_ge in Hlt. specialize (IH _ _ _ _ _ _ Hd (Hn eq_refl)).
          rewrite dropN_app_ge by assumption. rewrite lenN_app. destruct e; auto. lia.
      + inv Hd. rewrite (Hc ltac:(congruence)), (He eq_refl). unfold lenN. cbn. lia.
      + inv Hd. exact Logic.I.
      + inv Hd. exact Logic.I.
      + inv Hd. exact Logic.I.
  Qed.

  (** what a reader stuck on the error [e] says about the remaining content [C]
      is left open ([F e C]): the law only needs that io.EOF means nothing is left *)
  Section FixedErrors.
    Variable F : err -> bytes -> Prop.
    Hypothesis F_eof : forall C, F EEof C -> C = [].

    Definition I_offF (C : bytes) (o : ost S) : Prop :=
      match o_fixed o with
      | ENone => exists C1, C = o_prefix o ++ C1 /\ I C1 (o_u o)
      | e => F e C
      end.

    Lemma offset_clawF : claw (offset_read rd) I_offF.
    Proof.
      intros o c e o' C Hr Hi. unfold offset_read in Hr. unfold I_offF in Hi.
      destruct (o_fixed o) eqn:Ef;
        try (inv Hr; exists C; rsplit; auto; try congruence; intros _; unfold I_offF; rewrite Ef; exact Hi).
      destruct Hi as (C1 & -> & Hi). destruct (is_nil (o_prefix o)) eqn:En.
      - apply is_nil_true in En. rewrite En. cbn [app].
        destruct (rd (o_u o)) as [[c0 e0] u'] eqn:Hrd. inv Hr.
        destruct (Hlaw _ _ _ _ _ Hrd Hi) as (C' & -> & Hn & He & Hc). exists C'. rsplit; auto.
        intros E. unfold I_offF. cbn. exists C'. auto.
      - inv Hr. exists C1. rsplit; auto; try congruence. intros _. unfold I_offF. cbn. exists C1. auto.
    Qed.

    Lemma offset_init_lawF fuel off s C :
      I C s -> (0 <= off)%Z ->
      (forall e, e <> ENone -> (e = EEof -> lenN C < Z.to_N off) -> F e (dropN (Z.to_N off) C)) ->
      I_offF (dropN (Z.to_N off) C) (offset_init rd cl fuel off s).
    Proof.
      intros Hi Hle HF. unfold offset_init. destruct (off <? 0)%Z eqn:Hneg; [apply Z.ltb_lt in Hneg; lia|].
      destruct (discard_from_chunk_reader rd fuel (Z.to_N off) s) as [[prefix e] s'] eqn:Hd.
      pose proof (discard_law _ _ _ _ _ _ _ Hd Hi) as Hx.
      destruct e; unfold I_offF; cbn; try exact Hx; apply HF; congruence.
    Qed.
  End FixedErrors.

  Definition I_off (C : bytes) (o : ost S) : Prop :=
    match o_fixed o with
    | ENone => exists C1, C = o_prefix o ++ C1 /\ I C1 (o_u o)
    | e => e <> EEof
    end.

  Lemma offset_claw : claw (offset_read rd) I_off.
  Proof. exact (offset_clawF (fun e _ => e <> EEof) ltac:(congruence)). Qed.

  Lemma offset_init_law fuel k s C :
    I C s -> k <= lenN C -> I_off (dropN k C) (offset_init rd cl fuel (Z.of_N k) s).
  Proof.
    intros Hi Hle. rewrite <- (N2Z.id k) at 1.
    apply (offset_init_lawF (fun e _ => e <> EEof)); [exact Hi|lia|]. intros e _ He ->. specialize (He eq_refl). lia.
  Qed.

  Definition I_off2 : bytes -> ost S -> Prop := I_offF eof_empty.

  Lemma offset_claw2 : claw (offset_read rd) I_off2.
  Proof. exact (offset_clawF _ eof_empty_eof). Qed.

  Lemma offset_init_law2 fuel off s C :
    I C s -> (0 <= off)%Z -> I_off2 (dropN (Z.to_N off) C) (offset_init rd cl fuel off s).
  Proof.
    intros Hi Hle. apply offset_init_lawF; [exact Hi|exact Hle|]. intros e _ He E. apply dropN_all. specialize (He E). lia.
  Qed.

  (** newNormalizingChunkReader *)
  Definition I_norm (C : bytes) (n : nst S) : Prop := exists C1, C = n_last n ++ C1 /\ I C1 (n_u n).

  Lemma norm_claw fuel max : claw (norm_read rd fuel max) I_norm.
  Proof.
    induction fuel as [|f IH]; intros n c e n' C Hr (C1 & -> & Hi); cbn [norm_read] in Hr;
      destruct (is_nil (n_last n)) eqn:En; cbn [negb] in Hr.
    - inv Hr. eexists. rsplit; [reflexivity| | |]; congruence.
    - destruct (max <? lenN (n_last n)); inv Hr.
      + exists (dropN max (n_last n) ++ C1). rewrite app_assoc, takeN_dropN. rsplit; auto; try congruence.
        intros _. exists C1. auto.
      + exists C1. rsplit; auto; try congruence. intros _. exists C1. auto.
    - apply is_nil_true in En. rewrite En. cbn [app].
      destruct (rd (n_u n)) as [[c0 e0] u'] eqn:Hrd.
      destruct (Hlaw _ _ _ _ _ Hrd Hi) as (C' & -> & Hn & He & Hc).
      destruct e0;
        try (inv Hr; rewrite (Hc ltac:(congruence)); exists C'; rsplit; auto; try congruence).
      apply (IH _ _ _ _ _ Hr). exists C'. cbn. auto.
    - destruct (max <? lenN (n_last n)); inv Hr.
      + exists (dropN max (n_last n) ++ C1). rewrite app_assoc, takeN_dropN. rsplit; auto; try congruence.
        intros _. exists C1. auto.
      + exists C1. rsplit; auto; try congruence. intros _. exists C1. auto.
  Qed.

  (** newChunkReaderBackedReader *)
  Definition I_cb (C : bytes) (st : cbst S) : Prop := exists C1, C = cb_last st ++ C1 /\ I C1 (cb_u st).

  Lemma cb_loop_law : forall f left got st res e st' C,
    cb_loop rd f left got st = ((res, e), st') -> I_cb C st -> (left <> 0 -> cb_last st = []) ->
    exists d C', res = got ++ d /\ C = d ++ C' /\ (e = ENone -> I_cb C' st') /\ (e = EEof -> C' = []).
  Proof.
    induction f as [|f IH]; intros left got st res e st' C Hr Hi Hl; cbn [cb_loop] in Hr;
      destruct (left =? 0) eqn:E0.
    - inv Hr. exists [], C. rewrite app_nil_r. rsplit; auto. congruence.
    - inv Hr. exists [], C. rewrite app_nil_r. rsplit; auto; congruence.
    - inv Hr. exists [], C. rewrite app_nil_r. rsplit; auto. congruence.
    - apply N.eqb_neq in E0. destruct Hi as (C1 & -> & Hi). rewrite (Hl E0). cbn [app].
      destruct (rd (cb_u st)) as [[c e0] u'] eqn:Hrd.
      destruct (Hlaw _ _ _ _ _ Hrd Hi) as (C2 & -> & Hn & He & Hc).
      destruct e0;
        try (inv Hr; rewrite (Hc ltac:(congruence)); exists [], C2; rewrite app_nil_r; rsplit; auto; congruence).
      assert (Hi2 : I_cb (dropN left c ++ C2) (mkCbst u' (dropN left c))) by (exists C2; cbn; auto).
      assert (Hl2 : left - lenN (takeN left c) <> 0 -> cb_last (mkCbst u' (dropN left c)) = []).
      { intros Hne. cbn. rewrite lenN_takeN in Hne. apply dropN_all. lia. }
      destruct (IH _ _ _ _ _ _ _ Hr Hi2 Hl2) as (d & C' & -> & E & Hn' & He').
      exists (takeN left c ++ d), C'. rewrite <- !app_assoc. rsplit; auto.
      rewrite <- E, app_assoc, takeN_dropN. reflexivity.
  Qed.

  Lemma cb_rlaw f : rlaw (cb_read rd f) I_cb.
  Proof.
    intros cap st c e st' C Hr (C1 & -> & Hi). unfold cb_read in Hr.
    assert (Hi2 : I_cb (dropN cap (cb_last st) ++ C1) (mkCbst (cb_u st) (dropN cap (cb_last st))))
      by (exists C1; cbn; auto).
    assert (Hl2 : cap - lenN (takeN cap (cb_last st)) <> 0 ->
                  cb_last (mkCbst (cb_u st) (dropN cap (cb_last st))) = []).
    { intros Hne. cbn. rewrite lenN_takeN in Hne. apply dropN_all. lia. }
    destruct (cb_loop_law _ _ _ _ _ _ _ _ Hr Hi2 Hl2) as (d & C' & -> & E & Hn & He).
    exists C'. rsplit; auto. rewrite <- app_assoc, <- E, app_assoc, takeN_dropN. reflexivity.
  Qed.
End OverChunk.

Section OverReaderLaw.
  Variable S : Type.
  Variable rd : N -> S -> (bytes * err) * S.
  Variable I : bytes -> S -> Prop.
  Hypothesis Hlaw : rlaw_strong rd I.

  Lemma read_full_law : forall f want got s res e s' C,
    read_full_loop rd f want got s = ((res, e), s') -> I C s ->
    exists d C', res = got ++ d /\ C = d ++ C' /\ (e = ENone -> I C' s') /\
                 (e = EEof \/ e = EUnexp -> C' = []).
  Proof.
    induction f as [|f IH]; intros want got s res e s' C Hr Hi; cbn [read_full_loop] in Hr;
      destruct (want <=? lenN got) eqn:Ew.
    - inv Hr. exists [], C. rewrite app_nil_r. rsplit; auto; try congruence; try (intros [?|?]; congruence).
    - inv Hr. exists [], C. rewrite app_nil_r. rsplit; auto; try congruence; try (intros [?|?]; congruence).
    - inv Hr. exists [], C. rewrite app_nil_r. rsplit; auto; try congruence; try (intros [?|?]; congruence).
    - apply N.leb_gt in Ew. destruct (rd (want - lenN got) s) as [[c e0] s1] eqn:Hrd.
      destruct (Hlaw _ _ _ _ _ _ Hrd Hi) as (Hcap & Hnu & C1 & -> & He & Hn).
      assert (Hcont : forall d C', (res = (got ++ c) ++ d /\ C1 = d ++ C' /\ (e = ENone -> I C' s') /\
                                    (e = EEof \/ e = EUnexp -> C' = [])) ->
                exists d0 C0, res = got ++ d0 /\ c ++ C1 = d0 ++ C0 /\ (e = ENone -> I C0 s') /\
                              (e = EEof \/ e = EUnexp -> C0 = [])).
      { intros d C' (-> & -> & A & B). exists (c ++ d), C'. rewrite <- !app_assoc. auto. }
      assert (Herr : e0 <> ENone ->
                (if want <=? lenN (got ++ c) then ((got ++ c, ENone), s1)
                 else match e0 with
                      | EEof => ((got ++ c, if is_nil (got ++ c) then EEof else EUnexp), s1)
                      | _ => ((got ++ c, e0), s1)
                      end) = ((res, e), s') ->
                exists d0 C0, res = got ++ d0 /\ c ++ C1 = d0 ++ C0 /\ (e = ENone -> I C0 s') /\
                              (e = EEof \/ e = EUnexp -> C0 = [])).
      { intros Hne Hx. apply (Hcont [] C1). rewrite app_nil_r. cbn [app].
        destruct (want <=? lenN (got ++ c)) eqn:Ew2.
        - apply N.leb_le in Ew2. inv Hx. rsplit; auto; try (intros [?|?]; congruence).
          intros _. apply Hn. right. intros ->. rewrite app_nil_r in Ew2. lia.
        - destruct e0; try congruence.
          + inv Hx. rsplit; auto; try (destruct (is_nil (got ++ c)); congruence); intros _; auto.
          + inv Hx. rsplit; auto; try congruence; try (intros [?|?]; congruence).
          + inv Hx. rsplit; auto; try congruence; try (intros [?|?]; congruence). }
      destruct e0; try (apply Herr; [congruence|exact Hr]).
      destruct (IH _ _ _ _ _ _ _ Hr (Hn (or_introl eq_refl))) as (d & C' & A & B & X & Y).
      apply (Hcont d C'). auto.
  Qed.

  Lemma copy_n_law : forall f left s e s' C,
    copy_n_loop rd f left s = (e, s') -> I C s ->
    exists d C', C = d ++ C' /\ lenN d <= left /\ (e = ENone -> lenN d = left /\ I C' s') /\
                 (e = EEof -> C' = [] /\ lenN d < left).
  Proof.
    induction f as [|f IH]; intros left s e s' C Hr Hi; cbn [copy_n_loop] in Hr;
      destruct (left =? 0) eqn:E0.
    - apply N.eqb_eq in E0. inv Hr. exists [], C. rewrite lenN_nil. rsplit; auto; try lia. congruence.
    - inv Hr. exists [], C. rewrite lenN_nil. rsplit; auto; try lia; congruence.
    - apply N.eqb_eq in E0. inv Hr. exists [], C. rewrite lenN_nil. rsplit; auto; try lia. congruence.
    - apply N.eqb_neq in E0. destruct (rd (N.min discard_buf left) s) as [[c e0] s1] eqn:Hrd.
      destruct (Hlaw _ _ _ _ _ _ Hrd Hi) as (Hcap & Hnu & C1 & -> & He & Hn).
      assert (Hcl : lenN c <= left) by lia.
      assert (Herr : e0 <> ENone -> (e0 = EEof -> C1 = []) ->
                (if left - lenN c =? 0 then ENone else e0, s1) = (e, s') ->
                exists d C', c ++ C1 = d ++ C' /\ lenN d <= left /\ (e = ENone -> lenN d = left /\ I C' s') /\
                             (e = EEof -> C' = [] /\ lenN d < left)).
      { intros Hne Heof Hx. exists c, C1. destruct (left - lenN c =? 0) eqn:Ez.
        - apply N.eqb_eq in Ez. inv Hx. rsplit; auto; [|congruence]. intros _. split; [lia|].
          apply Hn. right. intros ->. rewrite lenN_nil in Ez. lia.
        - apply N.eqb_neq in Ez. inv Hx. rsplit; auto; [congruence|]. intros ->. split; [auto|lia]. }
      destruct e0.
      + destruct (IH _ _ _ _ _ Hr (Hn (or_introl eq_refl))) as (d & C' & -> & Hl & X & Y).
        exists (c ++ d), C'. rewrite <- app_assoc, lenN_app. rsplit; auto; try lia.
        * intros E. destruct (X E). split; [lia|assumption].
        * intros E. destruct (Y E). split; [assumption|lia].
      + apply Herr; [congruence|exact He|exact Hr].
      + congruence.
      + apply Herr; [congruence|congruence|exact Hr].
      + apply Herr; [congruence|congruence|exact Hr].
  Qed.

  (** newReaderBackedChunkReader *)
  Definition I_rb (C : bytes) (r : rbst S) : Prop :=
    match rb_err r with
    | ENone => I C (rb_u r)
    | EEof => C = []
    | _ => True
    end.

  Lemma rb_claw f max : claw (rb_read rd f max) I_rb.
  Proof.
    intros r c e r' C Hr Hi. unfold rb_read in Hr. unfold I_rb in Hi.
    destruct (rb_err r) eqn:Ee;
      try (inv Hr; eexists; rsplit; [reflexivity|..]; auto; try congruence; fail).
    destruct (read_full rd f max (rb_u r)) as [[data e0] u'] eqn:Hf. unfold read_full in Hf.
    destruct (read_full_law _ _ _ _ _ _ _ _ Hf Hi) as (d & C' & E & -> & Hn & He). cbn [app] in E. subst d.
    assert (Hst : I_rb C' (mkRbst u' (match e0 with EUnexp => EEof | _ => e0 end))).
    { unfold I_rb. cbn. destruct e0; auto. }
    destruct (is_nil data) eqn:En; cbn [negb] in Hr.
    - apply is_nil_true in En. subst data. inv Hr. exists C'. rsplit; auto.
      destruct e0; auto; intros; congruence.
    - inv Hr. exists C'. rsplit; auto; congruence.
  Qed.
End OverReaderLaw.

Definition I_csrc (C : bytes) (s : csrc) : Prop := ccar C (c_rest s).

Lemma csrc_claw : claw csrc_read I_csrc.
Proof.
  intros s c e s' C Hr (rest & -> & Hrest). unfold csrc_read in Hr. unfold I_csrc, ccar.
  destruct (c_rest s) as [|[bs|x|] r] eqn:Er; cbn [content fst snd] in *.
  - inv Hr. rewrite (Hrest eq_refl). exists []. rsplit; auto; try congruence.
  - inv Hr. destruct (content r) as [c0 e0] eqn:Ec. cbn [fst snd] in *. exists (c0 ++ rest).
    rewrite <- app_assoc. rsplit; auto; try congruence. intros _. cbn [c_rest]. rewrite Ec. exists rest. auto.
  - inv Hr. exists rest. rsplit; auto; congruence.
  - inv Hr. rewrite (Hrest eq_refl). exists []. rsplit; auto; congruence.
Qed.

Definition I_rsrc (C : bytes) (s : rsrc) : Prop :=
  if r_attach s then rcar C (r_rest s) else ccar C (r_rest s).

Lemma rsrc_attach cap s c e s' : rsrc_read cap s = ((c, e), s') -> r_attach s' = r_attach s.
Proof.
  unfold rsrc_read. destruct (r_rest s) as [|[bs|x|] r]; try (intros Hr; inv Hr; reflexivity).
  destruct (negb (is_nil (dropN cap bs))); [intros Hr; inv Hr; reflexivity|].
  destruct (r_attach s); [|intros Hr; inv Hr; reflexivity].
  destruct r as [|[bs2|x2|] r2]; intros Hr; inv Hr; reflexivity.
Qed.

(** without [r_attach] an error never comes with data *)
Lemma rsrc_plain_error cap s c e s' :
  rsrc_read cap s = ((c, e), s') -> r_attach s = false -> e <> ENone -> c = [].
Proof.
  unfold rsrc_read. intros Hr Ha Hne. rewrite Ha in Hr.
  destruct (r_rest s) as [|[bs|x|] r]; try (inv Hr; reflexivity).
  destruct (negb (is_nil (dropN cap bs))); inv Hr; congruence.
Qed.

Lemma rsrc_rcar cap s c e s' C :
  rsrc_read cap s = ((c, e), s') -> r_attach s = true -> rcar C (r_rest s) ->
  exists C', C = c ++ C' /\ (e = EEof -> C' = []) /\ rcar C' (r_rest s').
Proof.
  unfold rsrc_read. intros Hr Ha Hc. rewrite Ha in Hr.
  destruct (r_rest s) as [|[bs|x|] r] eqn:Er; cbn [rcar] in Hc.
  - inv Hr. exists []. rewrite Er. cbn. auto.
  - destruct Hc as (C0 & -> & Hc).
    destruct (is_nil (dropN cap bs)) eqn:En; cbn [negb] in Hr.
    + apply is_nil_true in En. rewrite (dropN_nil_takeN _ _ En) in Hr.
      destruct r as [|[bs2|x2|] r2]; inv Hr; cbn [r_rest]; cbn [rcar] in Hc.
      * exists []. subst. cbn. auto.
      * exists C0. rsplit; auto. congruence.
      * exists C0. rsplit; auto. congruence.
      * destruct Hc as (-> & Hc). exists []. auto.
    + inv Hr. exists (dropN cap bs ++ C0). rewrite app_assoc, takeN_dropN. rsplit; auto; [congruence|].
      cbn. exists C0. auto.
  - inv Hr. exists C. rsplit; auto. congruence.
  - destruct Hc as (-> & Hc). inv Hr. exists []. auto.
Qed.

Lemma rsrc_rlaw_strong : rlaw_strong rsrc_read I_rsrc.
Proof.
  intros cap s c e s' C Hr Hi. split; [exact (rsrc_cap _ _ _ _ _ Hr)|]. split; [exact (rsrc_no_unexp _ _ _ _ _ Hr)|].
  unfold I_rsrc in *. rewrite (rsrc_attach _ _ _ _ _ Hr). destruct (r_attach s) eqn:Ha.
  - destruct (rsrc_rcar _ _ _ _ _ _ Hr Ha Hi) as (C' & E & He & Hc). exists C'. auto.
  - destruct Hi as (rest & -> & Hrest). pose proof (rsrc_spec _ _ _ _ _ Hr) as Hs. unfold rcont in Hs.
    destruct e.
    + rewrite Hs in *. cbn [fst snd] in *. exists (fst (content (r_rest s')) ++ rest).
      rewrite <- app_assoc. rsplit; auto; try congruence. intros _. exists rest. auto.
    + rewrite Hs in *. cbn [fst snd] in *. exists rest. rsplit; auto.
      intros [?|Hn]; [congruence|]. exfalso. apply Hn. eapply rsrc_plain_error; eauto. congruence.
    + exfalso. exact (rsrc_no_unexp _ _ _ _ _ Hr eq_refl).
    + rewrite Hs in *. cbn [fst snd] in *. exists rest. rsplit; auto; try congruence.
      intros [?|Hn]; [congruence|]. exfalso. apply Hn. eapply rsrc_plain_error; eauto. congruence.
    + rewrite Hs in *. cbn [fst snd] in *. exists rest. rsplit; auto; try congruence.
      intros [?|Hn]; [congruence|]. exfalso. apply Hn. eapply rsrc_plain_error; eauto. congruence.
Qed.

Lemma bs_claw max : claw (bs_read max) (fun C d => d = C).
Proof.
  intros d c e d' C Hr <-. unfold bs_read in Hr. destruct (is_nil d) eqn:En.
  - apply is_nil_true in En. subst. inv Hr. exists []. rsplit; auto; try congruence.
  - destruct (lenN d <=? max); inv Hr.
    + exists []. rewrite app_nil_r. rsplit; auto; try congruence.
    + exists (dropN max d). rewrite takeN_dropN. rsplit; auto; try congruence.
Qed.

Lemma bb_rlaw : rlaw bb_read (fun C d => d = C).
Proof.
  intros cap d c e d' C Hr <-. unfold bb_read in Hr. destruct (is_nil d) eqn:En.
  - apply is_nil_true in En. subst. inv Hr. exists []. rsplit; auto.
  - inv Hr. exists (dropN cap d). rewrite takeN_dropN. rsplit; auto; try congruence.
Qed.

Lemma dropN_exact d C' : dropN (lenN d) (d ++ C') = C'.
Proof. rewrite dropN_app_ge by lia. rewrite N.sub_diag. apply dropN_0. Qed.

Lemma discard_reader_law fuel k evs attach e s C :
  discard_from_reader rsrc_read fuel (Z.of_N k) (mkRsrc evs attach 0) = (e, s) ->
  carries_full C (BReader evs attach) ->
  match e with ENone => I_rsrc (dropN k C) s | EEof => lenN C < k | _ => True end.
Proof.
  unfold discard_from_reader. intros Hd Hc.
  destruct (Z.of_N k <? 0)%Z eqn:Hneg; [apply Z.ltb_lt in Hneg; lia|]. rewrite N2Z.id in Hd.
  assert (Hi : I_rsrc C (mkRsrc evs attach 0)) by (unfold I_rsrc; cbn; exact Hc).
  destruct (copy_n_law _ _ _ rsrc_rlaw_strong _ _ _ _ _ _ Hd Hi) as (d & C' & -> & Hl & Hn & He).
  destruct e; auto.
  - destruct (Hn eq_refl) as (<- & Hi'). rewrite dropN_exact. exact Hi'.
  - destruct (He eq_refl) as (-> & Hlt). rewrite app_nil_r. exact Hlt.
Qed.

Section AnyFixedError.
  Variable F : err -> bytes -> Prop.
  Hypothesis F_eof : forall C, F EEof C -> C = [].

  Definition fixed_at (k : N) (C : bytes) : Prop :=
    forall e, e <> ENone -> (e = EEof -> lenN C < k) -> F e (dropN k C).

  Definition I_ucrF (C : bytes) (u : ucr) : Prop :=
    match u with
    | UNorm n => I_norm _ (I_offF _ I_csrc F) C n
    | URb r => I_rb _ I_rsrc C r
    | UBs d => d = C
    | UErr e | UFail e _ => F e C
    end.

  Lemma ucr_clawF ifuel max : claw (ucr_read ifuel max) I_ucrF.
  Proof.
    intros u c e u' C Hr Hi. destruct u as [n|r|d|x|x s]; cbn [ucr_read I_ucrF] in *.
    - destruct (norm_read (offset_read csrc_read) ifuel max n) as [[c0 e0] n'] eqn:Hn. inv Hr.
      exact (norm_claw _ _ _ (offset_clawF _ _ _ csrc_claw F F_eof) _ _ _ _ _ _ _ Hn Hi).
    - destruct (rb_read rsrc_read ifuel max r) as [[c0 e0] r'] eqn:Hn. inv Hr.
      exact (rb_claw _ _ _ rsrc_rlaw_strong _ _ _ _ _ _ _ Hn Hi).
    - destruct (bs_read max d) as [[c0 e0] d'] eqn:Hn. inv Hr.
      eapply bs_claw; [exact Hn|reflexivity].
    - inv Hr. exists C. rsplit; auto. intros ->. apply F_eof. exact Hi.
    - inv Hr. exists C. rsplit; auto. intros ->. apply F_eof. exact Hi.
  Qed.

  Lemma ucr_open_carriesF ifuel b k C :
    carries_full C b -> fixed_at k C -> I_ucrF (dropN k C) (ucr_open ifuel b k).
  Proof.
    intros Hc HF. destruct b as [evs|evs a|d|x]; cbn [ucr_open].
    - cbn [I_ucrF]. exists (dropN k C). cbn. split; [reflexivity|].
      replace (dropN k C) with (dropN (Z.to_N (Z.of_N k)) C) by (now rewrite N2Z.id).
      apply offset_init_lawF; [exact csrc_claw|exact Hc|lia|]. rewrite N2Z.id. exact HF.
    - destruct (discard_from_reader rsrc_read ifuel (Z.of_N k) (mkRsrc evs a 0)) as [e s] eqn:Hd.
      pose proof (discard_reader_law _ _ _ _ _ _ _ Hd Hc) as Hx.
      destruct e; cbn [I_ucrF]; try (apply HF; congruence). unfold I_rb. cbn. exact Hx.
    - cbn in Hc. subst d. destruct (k <=? lenN C) eqn:E; [reflexivity|]. cbn. apply HF; congruence.
    - cbn. apply HF; congruence.
  Qed.

  Definition I_urdF (C : bytes) (u : urd) : Prop :=
    match u with
    | RCb c => I_cb _ (I_offF _ I_csrc F) C c
    | RRaw s => I_rsrc C s
    | RBb d => d = C
    | RErr e | RFail e _ => F e C
    end.

  Lemma urd_rlawF fuel : rlaw (urd_read fuel) I_urdF.
  Proof.
    intros cap u c e u' C Hr Hi. destruct u as [cb|s|d|x|x s]; cbn [urd_read I_urdF] in *.
    - destruct (cb_read (offset_read csrc_read) fuel cap cb) as [[c0 e0] cb'] eqn:Hn. inv Hr.
      exact (cb_rlaw _ _ _ (offset_clawF _ _ _ csrc_claw F F_eof) _ _ _ _ _ _ _ Hn Hi).
    - destruct (rsrc_read cap s) as [[c0 e0] s1] eqn:Hn. inv Hr.
      exact (rlaw_strong_weak _ _ rsrc_rlaw_strong _ _ _ _ _ _ Hn Hi).
    - destruct (bb_read cap d) as [[c0 e0] d'] eqn:Hn. inv Hr.
      eapply bb_rlaw; [exact Hn|reflexivity].
    - inv Hr. exists C. rsplit; auto. intros ->. apply F_eof. exact Hi.
    - inv Hr. exists C. rsplit; auto. intros ->. apply F_eof. exact Hi.
  Qed.

  Lemma urd_open_carriesF fuel b k C :
    carries_full C b -> fixed_at k C -> I_urdF (dropN k C) (urd_open fuel b k).
  Proof.
    intros Hc HF. destruct b as [evs|evs a|d|x]; cbn [urd_open].
    - cbn [I_urdF]. exists (dropN k C). cbn. split; [reflexivity|].
      replace (dropN k C) with (dropN (Z.to_N (Z.of_N k)) C) by (now rewrite N2Z.id).
      apply offset_init_lawF; [exact csrc_claw|exact Hc|lia|]. rewrite N2Z.id. exact HF.
    - destruct (discard_from_reader rsrc_read fuel (Z.of_N k) (mkRsrc evs a 0)) as [e s] eqn:Hd.
      pose proof (discard_reader_law _ _ _ _ _ _ _ Hd Hc) as Hx.
      destruct e; cbn [I_urdF]; try (apply HF; congruence). exact Hx.
    - cbn in Hc. subst d. destruct (k <=? lenN C) eqn:E; [reflexivity|]. cbn. apply HF; congruence.
    - cbn. apply HF; congruence.
  Qed.
End AnyFixedError.

Lemma fixed_within k C : k <= lenN C -> fixed_at (fun e _ => e <> EEof) k C.
Proof. intros Hk e _ He ->. specialize (He eq_refl). lia. Qed.

Definition I_ucr (C : bytes) (u : ucr) : Prop :=
  match u with
  | UNorm n => I_norm _ (I_off _ I_csrc) C n
  | URb r => I_rb _ I_rsrc C r
  | UBs d => d = C
  | UErr e | UFail e _ => e <> EEof
  end.

Lemma ucr_claw ifuel max : claw (ucr_read ifuel max) I_ucr.
Proof. exact (ucr_clawF (fun e _ => e <> EEof) ltac:(congruence) ifuel max). Qed.

Lemma ucr_open_carries ifuel b k C :
  carries_full C b -> k <= lenN C -> I_ucr (dropN k C) (ucr_open ifuel b k).
Proof. intros Hc Hk. exact (ucr_open_carriesF _ ifuel b k C Hc (fixed_within k C Hk)). Qed.

Definition I_urd (C : bytes) (u : urd) : Prop :=
  match u with
  | RCb c => I_cb _ (I_off _ I_csrc) C c
  | RRaw s => I_rsrc C s
  | RBb d => d = C
  | RErr e | RFail e _ => e <> EEof
  end.

Lemma urd_rlaw fuel : rlaw (urd_read fuel) I_urd.
Proof. exact (urd_rlawF (fun e _ => e <> EEof) ltac:(congruence) fuel). Qed.

Lemma urd_open_carries fuel b k C :
  carries_full C b -> k <= lenN C -> I_urd (dropN k C) (urd_open fuel b k).
Proof. intros Hc Hk. exact (urd_open_carriesF _ fuel b k C Hc (fixed_within k C Hk)). Qed.

Lemma fixed_anywhere k C : fixed_at eof_empty k C.
Proof. intros e _ He E. apply dropN_all. specialize (He E). lia. Qed.

Lemma piece_arith k C p C' :
  k <= lenN C -> dropN k C = p ++ C' ->
  k + lenN p <= lenN C /\ dropN k C = p ++ dropN (k + lenN p) C /\ (C' = [] -> p = dropN k C).
Proof.
  intros Hk E. pose proof (lenN_dropN k C) as Hl. rewrite E, lenN_app in Hl.
  split; [lia|]. split.
  - rewrite <- (dropN_dropN (lenN p) k C), E, dropN_exact. reflexivity.
  - intros ->. now rewrite app_nil_r in E.
Qed.

Theorem piece_spec_full ifuel max C b k p t cur' :
  carries_full C b -> k <= lenN C ->
  drains (ucr_read ifuel max) (ucr_open ifuel b k) p t cur' ->
  k + lenN p <= lenN C /\ dropN k C = p ++ dropN (k + lenN p) C /\ (t = EEof -> p = dropN k C).
Proof.
  intros Hc Hk Hd.
  destruct (claw_drains _ _ _ (ucr_claw ifuel max) _ _ _ _ Hd _ (ucr_open_carries ifuel _ _ _ Hc Hk))
    as (C' & E & He).
  destruct (piece_arith _ _ _ _ Hk E) as (A & B & X). auto.
Qed.

(** No duplicated and no skipped range, every buffer kind, any fuel: if the
    original and all replacement buffers carry the same object, a stitched
    stream that reaches io.EOF is that object from the start offset. *)
Theorem stitched_no_dup_no_skip_full ifuel max C : forall cur k ans out e offs,
  stitched ifuel max cur k ans out e offs -> e = EEof ->
  forall b, cur = ucr_open ifuel b k -> carries_full C b -> Forall (ans_carries C) ans ->
  k <= lenN C -> out = dropN k C.
Proof.
  induction 1 as [cur k ans p cur' Hd|cur k ans p t cur' c Hd Hne Ho|cur k b1 rest p t cur' p2 e offs Hd Hne _ IH];
    intros He b -> Hc Hall Hk.
  - destruct (piece_spec_full _ _ _ _ _ _ _ _ Hc Hk Hd) as (_ & _ & Hp). auto.
  - discriminate.
  - inversion Hall as [|a l Hb1 Hrest]; subst.
    destruct (piece_spec_full _ _ _ _ _ _ _ _ Hc Hk Hd) as (Hk' & Hsplit & _).
    rewrite Hsplit. f_equal. eapply IH; eauto.
Qed.

(** ... and whatever the outcome, what has been handed out is a prefix of the
    object from the start offset (nothing duplicated, skipped or foreign). *)
Theorem stitched_prefix_full ifuel max C : forall cur k ans out e offs,
  stitched ifuel max cur k ans out e offs ->
  forall b, cur = ucr_open ifuel b k -> carries_full C b -> Forall (ans_carries C) ans ->
  k <= lenN C -> exists rest, dropN k C = out ++ rest.
Proof.
  induction 1 as [cur k ans p cur' Hd|cur k ans p t cur' c Hd Hne Ho|cur k b1 rest p t cur' p2 e offs Hd Hne _ IH];
    intros b -> Hc Hall Hk.
  - destruct (piece_spec_full _ _ _ _ _ _ _ _ Hc Hk Hd) as (_ & Hs & _). eauto.
  - destruct (piece_spec_full _ _ _ _ _ _ _ _ Hc Hk Hd) as (_ & Hs & _). eauto.
  - inversion Hall as [|a l Hb1 Hrest]; subst.
    destruct (piece_spec_full _ _ _ _ _ _ _ _ Hc Hk Hd) as (Hk' & Hsplit & _).
    destruct (IH _ eq_refl Hb1 Hrest Hk') as (r & Hr). exists r. rewrite Hsplit, Hr, app_assoc. reflexivity.
Qed.

(** On the scripts the harness generates for readers that attach EOF to data
    (chunks, optionally one final Eof event — [c16Clean]) the two carrier
    notions coincide. *)
Fixpoint clean_script (evs : list ev) : Prop :=
  match evs with
  | [] => True
  | Chunk _ :: r => clean_script r
  | Eof :: r => r = []
  | Err _ :: _ => False
  end.
Lemma clean_ccar_rcar : forall evs C, clean_script evs -> ccar C evs -> rcar C evs.
Proof.
  induction evs as [|[bs|c|] r IH]; intros C Hcl (rest & -> & Hrest); cbn [clean_script content rcar fst snd] in *.
  - rewrite (Hrest eq_refl). reflexivity.
  - destruct (content r) as [c0 e0] eqn:Ec. cbn [fst snd] in *. exists (c0 ++ rest). rewrite <- app_assoc.
    split; [reflexivity|]. apply IH; [exact Hcl|]. exists rest. rewrite Ec. auto.
  - contradiction.
  - subst r. rewrite (Hrest eq_refl). cbn. auto.
Qed.
