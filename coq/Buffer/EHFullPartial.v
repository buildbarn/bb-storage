(** C16 — runs that stop early: whatever a consumer has pulled out of the
    nested error-handling readers of a stack is a PREFIX of the stream of the
    level-wise specification [stitch_stack], and every level's OnError log is
    a prefix of the offers the specification lists for it.  (A validating
    reader stops reading as soon as it knows the stream is too long.) *)
From Coq Require Import List ZArith NArith Bool Lia.
From BBS Require Import Buffer.Source Buffer.ErrHandler Buffer.StreamProofs Buffer.ValidateProofs
  Buffer.ValidateReaderProofs Buffer.ErrHandlerProofs Buffer.EHFullCarry Buffer.EHFullExact
  Buffer.EHFullStackExact Buffer.EHFullStacking Run.R16.
Import ListNotations.
Open Scope N_scope.

Lemma self_carrier b : wf_buf b -> carries_full (fst (ucontent b)) b.
Proof.
  destruct b as [evs|evs a|d|x]; cbn [wf_buf ucontent carries_full]; intros Hw; auto.
  - exists []. rewrite app_nil_r. auto.
  - assert (Hc : ccar (fst (content evs)) evs) by (exists []; rewrite app_nil_r; auto).
    destruct a; [apply clean_ccar_rcar; assumption|exact Hc].
Qed.

Lemma piece_data b k : fst (piece_of b k) = dropN k (fst (ucontent b)).
Proof.
  unfold piece_of. destruct (ucontent b) as [c t]. cbn [fst]. destruct (k <=? lenN c) eqn:E; [reflexivity|].
  apply N.leb_gt in E. cbn. symmetry. apply dropN_all. lia.
Qed.

Lemma pulls_piece_prefix ifuel max b k p s' :
  pulls (ucr_read ifuel max) (ucr_open ifuel b k) p s' -> wf_buf b -> exists r, fst (piece_of b k) = p ++ r.
Proof.
  intros Hp Hw. rewrite piece_data.
  destruct (claw_pulls _ _ _ (ucr_clawF _ eof_empty_eof ifuel max) _ _ _ Hp _
              (ucr_open_carriesF _ ifuel b k _ (self_carrier b Hw) (fixed_anywhere k _))) as (C' & E & _).
  eauto.
Qed.
Lemma rpulls_piece_prefix fuel b k p s' :
  rpulls (urd_read fuel) (urd_open fuel b k) p s' -> wf_buf b -> exists r, fst (piece_of b k) = p ++ r.
Proof.
  intros Hp Hw. rewrite piece_data.
  destruct (rlaw_rpulls _ _ _ (urd_rlawF _ eof_empty_eof fuel) _ _ _ Hp _
              (urd_open_carriesF _ fuel b k _ (self_carrier b Hw) (fixed_anywhere k _))) as (C' & E & _).
  eauto.
Qed.

Definition lpre (q o : list err) : Prop := exists r, o = q ++ r.

Lemma stitch_stack_extends : forall anss x t, exists more, fst (fst (stitch_stack x t anss)) = x ++ more.
Proof.
  induction anss as [|a r IH]; intros x t; cbn [stitch_stack]; [exists []; cbn; now rewrite app_nil_r|].
  assert (Hf : exists m1, fst (fst (stitch_from x t a)) = x ++ m1).
  { unfold stitch_from. destruct t; try (exists []; cbn; now rewrite app_nil_r);
      destruct a as [|[b|cc] rest]; try (exists []; cbn; now rewrite app_nil_r);
      destruct (stitch b (lenN x) rest) as [[p2 t2] offs]; exists p2; reflexivity. }
  destruct (stitch_from x t a) as [[p1 t1] offs]. destruct Hf as (m1 & Hf). cbn in Hf. subst p1.
  destruct (IH (x ++ m1) t1) as (m2 & Hm). destruct (stitch_stack (x ++ m1) t1 r) as [[p2 t2] offss]. cbn in *.
  subst p2. exists (m1 ++ m2). now rewrite app_assoc.
Qed.

Lemma esc_K_offers : forall acts t D E D' E' q, snd (esc_K t acts (D, E, q)) = snd (esc_K t acts (D', E', q)).
Proof.
  induction acts as [|h r IH]; intros t D E D' E' q; cbn [esc_K]; [reflexivity|].
  destruct (fst (on_error h t)) as [b|c]; [reflexivity|].
  specialize (IH (ECode c) D E D' E' q).
  destruct (esc_K (ECode c) r (D, E, q)) as [[D1 E1] o1]. destruct (esc_K (ECode c) r (D', E', q)) as [[D2 E2] o2].
  cbn in *. now rewrite IH.
Qed.
Lemma esc_K_prefix : forall acts t D E q o,
  Forall2 lpre q o -> Forall2 lpre (snd (esc_K t acts (D, E, q))) (snd (esc_K t acts (D, E, o))).
Proof.
  induction acts as [|h r IH]; intros t D E q o Hf; cbn [esc_K]; [exact Hf|].
  destruct (fst (on_error h t)) as [b|c].
  - cbn. destruct Hf as [|q1 o1 qs os (r1 & ->) Hf]; constructor; [exists r1; reflexivity|exact Hf].
  - specialize (IH (ECode c) D E q o Hf).
    destruct (esc_K (ECode c) r (D, E, q)) as [[D1 E1] q1]. destruct (esc_K (ECode c) r (D, E, o)) as [[D2 E2] o2].
    cbn in *. constructor; [exists []; now rewrite app_nil_r|exact IH].
Qed.

Lemma zipo_nils_r : forall (ls : list (list err)), zipo ls (map (fun _ => []) ls) = ls.
Proof. induction ls as [|l r IH]; cbn; [reflexivity|]. now rewrite app_nil_r, IH. Qed.
Lemma lpre_nils : forall (ls : list hst) (os : list (list err)),
  length os = length ls -> Forall2 lpre (map (fun _ => []) (map oel ls)) os.
Proof.
  induction ls as [|l r IH]; intros [|o os] Hl; cbn in *; try discriminate; constructor.
  - exists o. reflexivity.
  - apply IH. lia.
Qed.

Section GenericPartial.
  Variable S : Type.
  Variable open : bufscript -> N -> S.
  Variable dr : S -> bytes -> err -> S -> Prop.
  Variable pl : S -> bytes -> S -> Prop.
  Hypothesis exact : forall b k p t s', dr (open b k) p t s' -> t <> EFuel -> wf_buf b -> piece_of b k = (p, t).
  Hypothesis exact_prefix : forall b k p s', pl (open b k) p s' -> wf_buf b -> exists r, fst (piece_of b k) = p ++ r.

  Inductive sstp : S -> N -> list hst -> bytes -> list hst -> Prop :=
  | sp_base cur k acts p cur' : pl cur p cur' -> sstp cur k acts p acts
  | sp_replace cur k acts p t cur' b e0 passed act' p2 fin :
      dr cur p t cur' -> t <> EEof -> escalate t acts = ((Some b, e0), passed, act') ->
      sstp (open b (k + lenN p)) (k + lenN p) act' p2 fin ->
      sstp cur k acts (p ++ p2) (map done passed ++ fin).

  Lemma sstp_step cur c cur' k acts out fin :
    (forall p s', pl cur' p s' -> pl cur (c ++ p) s') -> (forall p t s', dr cur' p t s' -> dr cur (c ++ p) t s') ->
    sstp cur' (k + lenN c) acts out fin -> sstp cur k acts (c ++ out) fin.
  Proof.
    intros Hpl Hdr Hs. inversion Hs; subst.
    - eapply sp_base. apply Hpl. eassumption.
    - rewrite app_assoc. eapply sp_replace; [apply Hdr; eassumption|assumption|eassumption|].
      rewrite lenN_app, N.add_assoc. assumption.
  Qed.

  Theorem sstp_is_prefix_of_stitch_stack : forall cur k acts out fin,
    sstp cur k acts out fin ->
    forall b pre p t, cur = open b k -> lenN pre = k -> piece_of b k = (p, t) ->
    wf_buf b -> hs_wf acts -> acts <> [] -> no_fuel_logged fin ->
    exists rest e offss qss,
      stitch_stack (pre ++ p) t (map h_answers acts) = (pre ++ out ++ rest, e, offss) /\
      map oel fin = zipo (map oel acts) qss /\ Forall2 lpre qss offss.
  Proof.
    induction 1 as [cur k acts p0 cur' Hp|cur k acts p0 t0 cur' b1 e0 passed act' p2 fin Hd Hne He _ IH];
      intros b pre p t -> Hk Hpc Hwf Hw Hnn Hnf.
    - destruct (exact_prefix _ _ _ _ Hp Hwf) as (r & Hr). rewrite Hpc in Hr. cbn in Hr. subst p.
      destruct (stitch_stack_extends (map h_answers acts) (pre ++ p0 ++ r) t) as (more & Hm).
      pose proof (stitch_stack_length (map h_answers acts) (pre ++ p0 ++ r) t) as Hlen.
      destruct (stitch_stack (pre ++ p0 ++ r) t (map h_answers acts)) as [[D E] offss]. cbn in Hm, Hlen. subst D.
      exists (r ++ more), E, offss, (map (fun _ => []) (map oel acts)). rsplit.
      + rewrite <- !app_assoc. reflexivity.
      + now rewrite zipo_nils_r.
      + apply lpre_nils. rewrite Hlen, map_length. reflexivity.
    - destruct (escalate_wf _ _ _ _ _ _ He Hw) as (Hw' & Hwb).
      assert (Hnf2 : no_fuel_logged fin) by (unfold no_fuel_logged in *; apply Forall_app in Hnf; exact (proj2 Hnf)).
      pose proof (escalate_nonempty _ _ _ _ _ _ He Hnn) as Hact'.
      destruct (piece_of b1 (k + lenN p0)) as [p' t'] eqn:Hp'.
      destruct (IH b1 (pre ++ p0) p' t' eq_refl ltac:(rewrite lenN_app; lia) Hp' Hwb Hw' Hact' Hnf2)
        as (rest & e & offss2 & qss2 & Hs2 & Hm2 & Hq2).
      assert (Hl2 : length qss2 = length act').
      { pose proof (stitch_stack_length (map h_answers act') ((pre ++ p0) ++ p') t') as Hl. rewrite Hs2 in Hl. cbn in Hl.
        rewrite map_length in Hl. rewrite <- Hl. eapply Forall2_len; eassumption. }
      destruct (esc_logs _ _ _ _ _ _ fin (pre, e, qss2) He (conj Hm2 Hl2)) as (Hm & Hlen & Hhd).
      pose proof (offered_not_fuel _ _ Hnf (Hhd Hnn)) as Ht0.
      rewrite (exact _ _ _ _ _ Hd Ht0 Hwf) in Hpc. inv Hpc.
      assert (HKs : forall p'0 t'0, piece_of b1 (lenN (pre ++ p)) = (p'0, t'0) ->
                stitch_stack ((pre ++ p) ++ p'0) t'0 (map h_answers act') = ((pre ++ p) ++ p2 ++ rest, e, offss2)).
      { intros p'0 t'0 Hq. rewrite lenN_app in Hq. rewrite Hp' in Hq. inv Hq. exact Hs2. }
      pose proof (esc_spec _ _ _ _ _ _ (pre ++ p) ((pre ++ p) ++ p2 ++ rest, e, offss2) Hne He HKs) as Hs. cbn beta iota in Hs.
      rewrite lenN_app in Hs. rewrite (Hs _ _ Hp').
      pose proof (esc_K_data acts t ((pre ++ p) ++ p2 ++ rest, e, offss2)) as Hdat. cbn [fst] in Hdat.
      pose proof (esc_K_prefix acts t ((pre ++ p) ++ p2 ++ rest) e qss2 offss2 Hq2) as Hpre.
      rewrite (esc_K_offers acts t ((pre ++ p) ++ p2 ++ rest) e pre e qss2) in Hpre.
      exists rest, e, (snd (esc_K t acts ((pre ++ p) ++ p2 ++ rest, e, offss2))), (snd (esc_K t acts (pre, e, qss2))). rsplit.
      + set (KK := esc_K t acts ((pre ++ p) ++ p2 ++ rest, e, offss2)) in *. clearbody KK.
        destruct KK as [[D E] o]. cbn [fst snd] in *. inv Hdat. now rewrite <- !app_assoc.
      + exact Hm.
      + exact Hpre.
  Qed.

  Corollary sstp_from_start b (w w' : world) out fin :
    sstp (open b 0) 0 (w_act w) out fin -> w_dn w ++ fin = lv w' ->
    wf_buf b -> hs_wf (w_act w) -> w_act w <> [] -> no_fuel_logged (lv w') ->
    exists rest e offss qss,
      (let '(p, t) := piece_of b 0 in stitch_stack p t (map h_answers (w_act w))) = (out ++ rest, e, offss) /\
      map oel (lv w') = map oel (w_dn w) ++ zipo (map oel (w_act w)) qss /\ Forall2 lpre qss offss.
  Proof.
    intros Hs Hlv Hwf Hw Hnn Hnf. destruct (piece_of b 0) as [p t] eqn:Hpc.
    unfold no_fuel_logged in Hnf. rewrite <- Hlv in *. apply Forall_app in Hnf.
    destruct (sstp_is_prefix_of_stitch_stack _ _ _ _ _ Hs b [] p t eq_refl eq_refl Hpc Hwf Hw Hnn (proj2 Hnf))
      as (rest & e & offss & qss & Hss & Hm & Hq).
    exists rest, e, offss, qss. rewrite map_app, Hm. auto.
  Qed.
End GenericPartial.

Section SchPartial.
  Variable ifuel : nat.
  Variable max : N.
  Notation urd := (ucr_read ifuel max).
  Notation sstpc := (sstp ucr (ucr_open ifuel) (drains urd) (pulls urd)).

  Lemma sstp_cons cur c cur' k acts out fin :
    urd cur = ((c, ENone), cur') -> sstpc cur' (k + lenN c) acts out fin -> sstpc cur k acts (c ++ out) fin.
  Proof.
    intros Hr. apply sstp_step; intros; [eapply pulls_step|eapply drains_step]; eassumption.
  Qed.

  Lemma sch_read_invp : forall f r c r1,
    sch_read ifuel f max r = ((c, ENone), r1) ->
    forall out fin, sstpc (sc_cur r1) (sc_off r1) (w_act (sc_w r1)) out fin ->
      exists fin0, sstpc (sc_cur r) (sc_off r) (w_act (sc_w r)) (c ++ out) fin0 /\
                   w_dn (sc_w r) ++ fin0 = w_dn (sc_w r1) ++ fin.
  Proof.
    induction f as [|f IH]; intros r c r1 Hr out fin Hs; [inv Hr|].
    destruct (urd (sc_cur r)) as [[chunk e0] cur'] eqn:Hu. destruct (op_done e0) eqn:Hop.
    - cbn [sch_read] in Hr. rewrite Hu in Hr. destruct e0; try discriminate Hop; inv Hr.
      exists fin. split; [|reflexivity]. eapply sstp_cons; eassumption.
    - rewrite (sch_read_io _ _ _ _ _ _ _ Hu Hop) in Hr. destruct (op_done_false _ Hop) as (Hn & He).
      destruct (escalate e0 (w_act (sc_w r))) as [[[ob e'] passed] act'] eqn:Hesc.
      destruct ob as [b|]; [|destruct (escalate_none_err _ _ _ _ _ Hesc) as (_ & [?|(cc & ?)]); inv Hr; congruence].
      destruct (IH _ _ _ Hr out fin Hs) as (fin2 & Hs2 & Hw2). cbn [sc_cur sc_off sc_w after_replace w_dn w_act] in Hs2, Hw2.
      exists (map done passed ++ fin2). split.
      + change (c ++ out) with ([] ++ (c ++ out)).
        eapply sp_replace; [eapply drains_end; eassumption|exact He|exact Hesc|].
        rewrite lenN_nil, N.add_0_r. exact Hs2.
      + rewrite app_assoc. exact Hw2.
  Qed.

  Theorem sch_pulled fuel r out r' :
    pulls (sch_read ifuel fuel max) r out r' ->
    exists fin, sstpc (sc_cur r) (sc_off r) (w_act (sc_w r)) out fin /\ w_dn (sc_w r) ++ fin = lv (sc_w r').
  Proof.
    induction 1 as [r|r c r1 bs r2 Hr _ IH].
    - exists (w_act (sc_w r)). split; [eapply sp_base; constructor|reflexivity].
    - destruct IH as (fin & Hs & Hw). destruct (sch_read_invp _ _ _ _ Hr _ _ Hs) as (fin0 & Hs0 & Hw0).
      exists fin0. split; [exact Hs0|]. rewrite Hw0. exact Hw.
  Qed.
End SchPartial.

Section ShrPartial.
  Variable fuel : nat.
  Notation urdr := (urd_read fuel).
  Notation sstpr := (sstp urd (urd_open fuel) (rdrains urdr) (rpulls urdr)).

  Lemma sstpr_cons cap cur c cur' k acts out fin :
    urdr cap cur = ((c, ENone), cur') -> sstpr cur' (k + lenN c) acts out fin -> sstpr cur k acts (c ++ out) fin.
  Proof.
    intros Hr. apply sstp_step; intros; [eapply rpulls_step|eapply rdrains_step]; eassumption.
  Qed.

  Theorem shr_pulled r out r' :
    rpulls (shr_read fuel) r out r' ->
    exists fin, sstpr (sr_cur r) (sr_off r) (w_act (sr_w r)) out fin /\ w_dn (sr_w r) ++ fin = lv (sr_w r').
  Proof.
    induction 1 as [r|cap r c r1 bs r2 Hr _ IH].
    - exists (w_act (sr_w r)). split; [eapply sp_base; constructor|reflexivity].
    - destruct IH as (fin & Hs & Hw).
      destruct (urd_read fuel cap (sr_cur r)) as [[data t] cur'] eqn:Hu. destruct (op_done t) eqn:Hop.
      + rewrite (shr_read_done _ _ _ _ _ _ Hu Hop) in Hr. inv Hr.
        exists fin. split; [eapply sstpr_cons; eassumption|exact Hw].
      + rewrite (shr_read_io _ _ _ _ _ _ Hu Hop) in Hr. destruct (op_done_false _ Hop) as (Hn & He).
        destruct (escalate t (w_act (sr_w r))) as [[[ob e'] passed] act'] eqn:Hesc.
        destruct ob as [b|]; inv Hr; [|destruct (escalate_none_err _ _ _ _ _ Hesc) as (_ & [?|(cc & ?)]); congruence].
        cbn [sr_cur sr_off sr_w after_replace w_dn w_act] in Hs, Hw.
        exists (map done passed ++ fin). split.
        * eapply sp_replace; [eapply rdrains_end; eassumption|exact He|exact Hesc|exact Hs].
        * rewrite app_assoc. exact Hw.
  Qed.
End ShrPartial.

Theorem stack_chunk_pulled_is_prefix ifuel fuel max b w out r' :
  pulls (sch_read ifuel fuel max) (sch_init ifuel b w) out r' ->
  wf_buf b -> hs_wf (w_act w) -> w_act w <> [] ->
  Forall (fun h => ~ In EFuel (oel h)) (lv (sc_w r')) ->
  exists rest e offss qss,
    (let '(p, t) := piece_of b 0 in stitch_stack p t (map h_answers (w_act w))) = (out ++ rest, e, offss) /\
    oews (sc_w r') = map oel (w_dn w) ++ zipo (map oel (w_act w)) qss /\ Forall2 lpre qss offss.
Proof.
  intros Hp Hwf Hw Hnn Hnf. destruct (sch_pulled _ _ _ _ _ _ Hp) as (fin & Hs & Hlv).
  exact (sstp_from_start _ _ _ _ (piece_exact ifuel max) (pulls_piece_prefix ifuel max)
           b w (sc_w r') out fin Hs Hlv Hwf Hw Hnn Hnf).
Qed.

Theorem stack_reader_pulled_is_prefix fuel b w out r' :
  rpulls (shr_read fuel) (shr_init fuel b w) out r' ->
  wf_buf b -> hs_wf (w_act w) -> w_act w <> [] ->
  Forall (fun h => ~ In EFuel (oel h)) (lv (sr_w r')) ->
  exists rest e offss qss,
    (let '(p, t) := piece_of b 0 in stitch_stack p t (map h_answers (w_act w))) = (out ++ rest, e, offss) /\
    oews (sr_w r') = map oel (w_dn w) ++ zipo (map oel (w_act w)) qss /\ Forall2 lpre qss offss.
Proof.
  intros Hp Hwf Hw Hnn Hnf. destruct (shr_pulled _ _ _ _ Hp) as (fin & Hs & Hlv).
  exact (sstp_from_start _ _ _ _ (rpiece_exact fuel) (rpulls_piece_prefix fuel)
           b w (sr_w r') out fin Hs Hlv Hwf Hw Hnn Hnf).
Qed.
