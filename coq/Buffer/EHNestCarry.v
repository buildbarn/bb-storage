(** C16N — no duplicated and no skipped range for NESTED error handling, every
    tree, every handler script, every method, any fuel.

    The nested error-handling readers satisfy C16's carrier law
    (Buffer/EHFullCarry.v): an errorHandlingChunkReader opened at offset [off]
    on a buffer whose plain buffers all carry the object [C] carries
    [C[off..]]; its field [off] is the ABSOLUTE position (start offset plus the
    bytes it has handed out), so a replacement opened at [r.off] carries the
    rest again - at every level of the nesting. *)
From Coq Require Import List ZArith NArith Bool Lia.
From BBS Require Import Buffer.Source Buffer.Validate Buffer.Convert Buffer.StreamProofs
  Buffer.ValidateProofs Buffer.ValidateReaderProofs Buffer.ConvertProofs Buffer.ReaderBufferProofs
  Buffer.EHFullCarry Buffer.EHFullReader Buffer.EHFullMethods Buffer.EHFullStack Buffer.EHFullPrefix
  Buffer.EHNest Buffer.EHNestStep.
Import ListNotations.
Open Scope N_scope.

Section NestCarry.
  Variable C : bytes.

  (** every plain buffer of the tree (original and replacements at any depth) carries [C] *)
  Fixpoint tcarry (t : nbuf) : Prop :=
    match t with
    | NB b => carries_full C b
    | NW inner ans => tcarry inner /\ acarry ans
    end
  with acarry (a : nanss) : Prop :=
    match a with
    | ANil => True
    | ARep b r => tcarry b /\ acarry r
    | AFail _ r => acarry r
    end.

  Lemma rest_at off p C' :
    off <= lenN C -> dropN off C = p ++ C' -> off + lenN p <= lenN C /\ C' = dropN (off + lenN p) C.
  Proof.
    intros Hoff E. destruct (piece_arith _ _ _ _ Hoff E) as (A & B & _). split; [exact A|].
    rewrite E in B. exact (app_inv_head _ _ _ B).
  Qed.

  Variable ifuel : nat.

  Fixpoint I_ncr (Crem : bytes) (r : ncr) : Prop :=
    match r with
    | CL u => I_ucr Crem u
    | CE cur off h => I_ncr Crem cur /\ Crem = dropN off C /\ off <= lenN C /\ acarry (hn_ans h)
    end.

  Lemma nopen_carries : forall t k, tcarry t -> k <= lenN C -> I_ncr (dropN k C) (nopen ifuel t k).
  Proof.
    induction t as [b|inner IH ans]; intros k Hc Hk; cbn [nopen I_ncr].
    - apply ucr_open_carries; assumption.
    - destruct Hc as (Hi & Ha). rsplit; auto.
  Qed.

  Lemma nstep_carries max f r x r' : nstep ifuel max f r x r' -> forall Crem, I_ncr Crem r ->
    exists C', Crem = fst x ++ C' /\ (snd x = ENone -> I_ncr C' r') /\ (snd x = EEof -> C' = []) /\
               (snd x <> ENone -> fst x = []).
  Proof.
    induction 1 as [r|f u [c e] u' Hu|f cur off h chunk cur' _ IH|f cur off h chunk cur' _ IH
                    |f cur off h chunk e cur' c rest _ _ He Hs|f cur off h chunk e cur' t rest x r' _ _ He Ha _ IH];
      intros Crem Hi; cbn [fst snd] in *.
    - exists Crem. rsplit; auto; congruence.
    - exact (ucr_claw ifuel max _ _ _ _ _ Hu Hi).
    - destruct Hi as (Hi & -> & Hoff & Hh). destruct (IH _ Hi) as (C' & E & Hn & _).
      destruct (rest_at _ _ _ Hoff E) as (A & ->). eexists. rsplit; [exact E| |congruence..].
      intros _. cbn [I_ncr]. rsplit; auto.
    - destruct Hi as (Hi & _). destruct (IH _ Hi) as (C' & E & _ & He & Hc).
      rewrite (He eq_refl), (Hc ltac:(congruence)) in E. exists []. rsplit; auto; congruence.
    - exists Crem. rsplit; auto; congruence.
    - destruct Hi as (_ & -> & Hoff & Hh). rewrite Ha in Hh. destruct Hh as (Ht & Hr).
      apply IH. cbn [I_ncr hn_retire hn_offered hn_ans]. rsplit; auto. apply nopen_carries; assumption.
  Qed.

  Lemma nread_claw max : forall fuel, claw (nread ifuel fuel max) I_ncr.
  Proof. intros fuel r c e r' Crem Hr Hi. exact (nstep_carries _ _ _ _ _ (nread_nstep _ _ _ _ _ _ Hr) _ Hi). Qed.

  Fixpoint I_nrd (Crem : bytes) (r : nrd) : Prop :=
    match r with
    | RL u => I_urd Crem u
    | RE cur off h => I_nrd Crem cur /\ Crem = dropN off C /\ off <= lenN C /\ acarry (hn_ans h)
    end.

  Lemma nropen_carries : forall t k, tcarry t -> k <= lenN C -> I_nrd (dropN k C) (nropen ifuel t k).
  Proof.
    induction t as [b|inner IH ans]; intros k Hc Hk; cbn [nropen I_nrd].
    - apply urd_open_carries; assumption.
    - destruct Hc as (Hi & Ha). rsplit; auto.
  Qed.

  Lemma rstep_carries cap r x r' : rstep ifuel cap r x r' -> forall Crem, I_nrd Crem r ->
    exists C', Crem = fst x ++ C' /\ (snd x = ENone -> I_nrd C' r') /\ (snd x = EEof -> C' = []).
  Proof.
    induction 1 as [u [c e] u' Hu|cur off h data e cur' _ IH _|cur off h data e cur' c rest _ IH He Hs
                    |cur off h data e cur' t rest _ IH He Ha];
      intros Crem Hi; cbn [fst snd] in *; [exact (urd_rlaw ifuel _ _ _ _ _ _ Hu Hi)|..];
      destruct Hi as (Hi & -> & Hoff & Hh); destruct (IH _ Hi) as (C' & E & Hn & Hf);
      destruct (rest_at _ _ _ Hoff E) as (A & ->); (eexists; rsplit; [exact E|..]; try congruence).
    - intros En. cbn [I_nrd]. rsplit; auto.
    - exact Hf.
    - intros _. rewrite Ha in Hh. destruct Hh as (Ht & Hr). cbn [I_nrd hn_retire hn_offered hn_ans]. rsplit; auto.
      apply nropen_carries; assumption.
  Qed.

  Lemma nrread_is_rlaw : rlaw (nrread ifuel) I_nrd.
  Proof. intros cap r c e r' Crem Hr Hi. exact (rstep_carries _ _ _ _ (nrread_rstep _ _ _ _ _ Hr) _ Hi). Qed.

  (** the nested unvalidated io.Readers never say io.ErrUnexpectedEOF *)
  Fixpoint nrd_nu (r : nrd) : Prop :=
    match r with
    | RL u => urd_nu u
    | RE cur _ _ => nrd_nu cur
    end.
  Lemma nropen_nu : forall t k, nrd_nu (nropen ifuel t k).
  Proof. induction t as [b|inner IH ans]; intros k; cbn; [apply urd_open_nu|apply IH]. Qed.
  Lemma rstep_nu cap r x r' :
    rstep ifuel cap r x r' -> nrd_nu r -> snd x <> EUnexp /\ (snd x = ENone -> nrd_nu r').
  Proof.
    induction 1 as [u [c e] u' Hu|cur off h data e cur' _ IH _|cur off h data e cur' c rest _ _ _ _
                    |cur off h data e cur' t rest _ _ _ _]; intros Hn; cbn [nrd_nu fst snd] in *.
    - destruct (urd_read_nu _ _ _ _ _ _ Hu Hn) as (A & B). auto.
    - exact (IH Hn).
    - split; congruence.
    - split; [congruence|intros _; apply nropen_nu].
  Qed.
  Lemma nrread_nu cap r c e r' :
    nrd_nu r -> nrread ifuel cap r = ((c, e), r') -> e <> EUnexp /\ (e = ENone -> nrd_nu r').
  Proof. intros Hn Hr. exact (rstep_nu _ _ _ _ (nrread_rstep _ _ _ _ _ Hr) Hn). Qed.
End NestCarry.

Section NestMethods.
  Variable H : bytes -> bytes.
  Variable cfg : vcfg.
  Variable fuel : nat.
  Variable C : bytes.

  Lemma nopen_init_carries t : tcarry C t -> I_ncr C C (nopen fuel t 0).
  Proof. intros Hc. rewrite <- (dropN_0 C) at 2. apply nopen_carries; [assumption|lia]. Qed.
  Lemma nropen_init_carries t : tcarry C t -> I_nrd C C (nropen fuel t 0).
  Proof. intros Hc. rewrite <- (dropN_0 C) at 2. apply nropen_carries; [assumption|lia]. Qed.

  Lemma nv_complete_is_object max t out st' :
    tcarry C t -> drains (nv_read H cfg fuel max) (vinit cfg (nopen fuel t 0)) out EEof st' -> out = C.
  Proof.
    intros Hc Hd. unfold nv_read in Hd.
    destruct (vcr_complete_implies_valid _ _ _ _ _ _ _ _ Hd) as ((u & Hdu) & _).
    destruct (claw_drains _ _ _ (nread_claw C fuel max fuel) _ _ _ _ Hdu _ (nopen_init_carries _ Hc)) as (C' & E & He).
    rewrite (He eq_refl), app_nil_r in E. auto.
  Qed.

  Lemma nrv_complete_is_object t out st' :
    tcarry C t -> rdrains (nrv_read H cfg fuel) (vinit cfg (nropen fuel t 0)) out EEof st' -> out = C.
  Proof.
    intros Hc Hd. unfold nrv_read in Hd.
    destruct (vr_complete_under_init H cfg _ (nrread fuel) fuel nrd_nu (nrread_nu fuel) (nropen fuel t 0) _ _
                (nropen_nu fuel t 0) Hd) as (Hu & _).
    destruct (rlaw_rdrains _ _ _ (nrread_is_rlaw C fuel) _ _ _ _ Hu _ (nropen_init_carries _ Hc)) as (C' & E & He).
    rewrite (He eq_refl), app_nil_r in E. auto.
  Qed.

  Definition wres_ok (m : meth) (r : wres) : Prop :=
    completed m (snd (fst (fst r))) = true -> fst (fst (fst r)) = expected_slice m C.

  Lemma wres_ok_code m c cbs o : wres_ok m (([], ECode c, cbs), o).
  Proof. unfold wres_ok. cbn [fst snd]. rewrite completed_code. discriminate. Qed.

  Lemma whole_try_no_dup m : m <> MDiscard ->
    (forall t, tcarry C t -> wres_ok m (whole H cfg fuel m t)) /\
    (forall ans, acarry C ans -> forall r offers dead cbs, wres_ok m r ->
       wres_ok m (try_ans H cfg fuel m ans r offers dead cbs)).
  Proof.
    intros Hm.
    pose (Pt := fun ans r (_ : list err) (_ : list otree) (_ : list bool) w' =>
                  acarry C ans -> wres_ok m r -> wres_ok m w').
    destruct (whole_try_ind H cfg fuel m (fun t w => tcarry C t -> wres_ok m w) Pt) as (A & B); unfold Pt.
    - intros b Hc Hcomp. apply plain_complete; assumption.
    - intros inner ans w w' Hi Ha (Hci & Hca). auto.
    - intros ans d e cb o offers dead cbs _ _ Hr. exact Hr.
    - intros. apply wres_ok_code.
    - intros t rest d e cb o offers dead cbs w w' _ Ht Hrest (Hct & Hcr) _. auto.
    - split; [exact A|]. intros ans Hca r offers dead cbs. apply B. exact Hca.
  Qed.

  (** The property's first sentence for trees of any depth: a call / stream
      that completes has handed the consumer exactly the expected slice of the
      object, every byte once and in order. *)
  Theorem run_tree_no_dup_no_skip t m :
    tcarry C t -> m <> MDiscard ->
    completed m (z_err (run_tree H cfg fuel t m)) = true ->
    z_data (run_tree H cfg fuel t m) = expected_slice m C.
  Proof.
    intros Hc Hm. destruct t as [b|inner ans].
    - cbn [run_tree z_err z_data]. apply plain_complete; assumption.
    - remember (NW inner ans) as t eqn:Et. destruct m; try congruence; rewrite Et; cbn [run_tree]; rewrite <- Et.
      + rewrite whole_out. cbn [z_err z_data]. exact (proj1 (whole_try_no_dup _ Hm) t Hc).
      + unfold into_writer_cr. destruct (drain _ fuel [] _) as [[out e] st] eqn:Hd. cbn [z_err z_data expected_slice].
        intros Hcomp. destruct (drain_drains _ _ _ _ _ _ _ _ Hd) as (bs & -> & Hds); [intros ->; discriminate|].
        destruct e; try discriminate; [exfalso; exact (drains_not_none _ _ _ _ _ _ Hds eq_refl)|].
        cbn [app]. eapply nv_complete_is_object; eauto.
      + rewrite whole_out. cbn [z_err z_data]. exact (proj1 (whole_try_no_dup _ Hm) t Hc).
      + destruct (valid_offset (g_size cfg) off) eqn:Hv; [|cbn; discriminate].
        destruct (drain _ fuel [] _) as [[out e] o] eqn:Hd.
        destruct (extra_reads _ extra o) as [ex o2]. cbn [z_err z_data expected_slice completed].
        intros Hcomp. destruct e; try discriminate.
        destruct (drain_drains _ _ _ _ _ _ _ _ Hd) as (bs & -> & Hds); [congruence|]. cbn [app].
        destruct (offset_complete_generic _ _ _ _ _ _ _ _ Hds) as (_ & full & u & Hfull & ->).
        rewrite (nv_complete_is_object _ _ _ _ Hc Hfull). reflexivity.
      + destruct (rconsume _ fuel caps _ [] _) as [[out e] st] eqn:Hr.
        destruct (rextra _ extra _ st) as [ex st2]. cbn [z_err z_data expected_slice completed].
        intros Hcomp. destruct e; try discriminate.
        destruct (rconsume_rdrains _ _ _ _ _ _ _ _ _ _ Hr) as (bs & -> & Hds); [congruence|]. cbn [app].
        eapply nrv_complete_is_object; eauto.
      + rewrite whole_out. cbn [z_err z_data].
        exact (proj1 (whole_try_no_dup (MToByteSlice max) ltac:(discriminate)) t Hc).
  Qed.

  (** "... or an error": whatever the outcome of a streaming method on a
      wrapped tree (validation failure, a handler's error at any level, out of
      fuel), the bytes handed out are a PREFIX of the expected slice. *)
  Theorem run_tree_delivered_prefix inner ans m :
    tcarry C (NW inner ans) -> streaming m ->
    exists rest, expected_slice m C = z_data (run_tree H cfg fuel (NW inner ans) m) ++ rest.
  Proof.
    intros Hc Hm. remember (NW inner ans) as t eqn:Et. destruct m; try contradiction; rewrite Et; cbn [run_tree expected_slice]; rewrite <- Et.
    - unfold into_writer_cr. destruct (drain _ fuel [] _) as [[out e] st] eqn:Hd. cbn [z_data].
      unfold nv_read in Hd.
      destruct (drain_law _ _ _ (vcr_claw H cfg _ _ fuel _ (nread_claw C fuel 65536 fuel)) _ _ _ _ _ _ _ Hd
                  (I_v_init cfg _ _ _ _ (nopen_init_carries _ Hc))) as (d & C' & -> & E).
      cbn [app]. eauto.
    - destruct (valid_offset (g_size cfg) off) eqn:Hv; [|cbn; eauto].
      destruct (drain _ fuel [] _) as [[out e] o] eqn:Hd.
      destruct (extra_reads _ extra o) as [ex o2]. cbn [z_data].
      pose proof (valid_offset_pos _ _ Hv) as Hpos.
      unfold nv_read in Hd.
      pose proof (vcr_claw H cfg _ _ fuel _ (nread_claw C fuel max fuel)) as Hcl.
      destruct (drain_law _ _ _ (offset_claw2 _ _ _ Hcl) _ _ _ _ _ _ _ Hd
                  (offset_init_law2 _ _ nv_close _ Hcl fuel off _ _
                     (I_v_init cfg _ _ _ _ (nopen_init_carries _ Hc)) Hpos)) as (d & C' & -> & E).
      cbn [app]. eauto.
    - destruct (rconsume _ fuel caps _ [] _) as [[out e] st] eqn:Hr.
      destruct (rextra _ extra _ st) as [ex st2]. cbn [z_data].
      unfold nrv_read in Hr.
      destruct (rconsume_law _ _ _ (vr_rlaw H cfg _ _ fuel _ (nrread_is_rlaw C fuel) _ (nrread_nu fuel)) _ _ _ _ _ _ _ _ _ Hr
                  (I_vr_init cfg _ _ _ _ _ (nropen_init_carries _ Hc) (nropen_nu fuel t 0)))
        as (d & C' & -> & E).
      cbn [app]. eauto.
  Qed.
End NestMethods.
