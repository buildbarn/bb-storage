(** C16 — the monitor is silent on the model for every streaming method
    (IntoWriter, ToChunkReader, ToReader): all clauses of [mon16] (1-5, 7-10;
    clause 6 concerns the other methods), for inputs of the harness's domain on
    which the model does not run out of fuel. *)
From Coq Require Import List ZArith NArith Bool Lia.
From BBS Require Import Common.Sx Buffer.Source Buffer.Validate Buffer.Convert Buffer.ErrHandler
  Buffer.StreamProofs Buffer.ValidateProofs Buffer.ConvertProofs Buffer.C09FullMonitor
  Buffer.ErrHandlerProofs Buffer.EHFullPrefix Buffer.EHFullStacking Buffer.EHFullStackExact Buffer.EHFullCompleted
  Buffer.EHFullPartial Buffer.EHFullRuns Buffer.EHFullMon Buffer.EHFullMon3 Run.R09 Run.R16
  Run.R16Proofs.
Import ListNotations.
Open Scope Z_scope.

Lemma stitch_from_returned : forall ans x t p1 t1 offs c,
  stitch_from x t ans = (p1, t1, offs) -> returned ans (length offs) = Some c -> t1 = ECode c.
Proof.
  induction ans as [|[b'|c0] rest IH]; intros x t p1 t1 offs c Hs Hr; unfold stitch_from in Hs;
    assert (Heof : t = EEof -> t1 = ECode c) by (intros ->; inv Hs; cbn in Hr; discriminate).
  - destruct t; try (apply Heof; reflexivity); inv Hs; cbn in Hr; inv Hr; reflexivity.
  - (* the replacement's stream is the stream of a level of its own *)
    destruct (piece_of b' (lenN x)) as [p' t'] eqn:Hp.
    pose proof (stitch_as_from x b' (lenN x) rest p' t' eq_refl Hp) as Has.
    destruct (stitch b' (lenN x) rest) as [[p2 t2] offs2].
    assert (Hgen : (x ++ p2, t2, t :: offs2) = (p1, t1, offs) -> t1 = ECode c).
    { intros Hx. inv Hx. cbn [length returned] in Hr. destruct (length offs2) as [|n] eqn:El; [cbn in Hr; discriminate|].
      cbn [nth_error] in Hr. eapply IH; [exact Has|]. rewrite El. exact Hr. }
    destruct t; try (apply Heof; reflexivity); apply Hgen; exact Hs.
  - destruct t; try (apply Heof; reflexivity); inv Hs; cbn in Hr; inv Hr; reflexivity.
Qed.

Lemma stitch_stack_returned : forall anss x t st term offss c,
  stitch_stack x t anss = (st, term, offss) -> anss <> [] ->
  returned (last anss []) (length (last offss [])) = Some c -> term = ECode c.
Proof.
  induction anss as [|a r IH]; intros x t st term offss c Hs Hn Hr; [congruence|].
  cbn [stitch_stack] in Hs. destruct (stitch_from x t a) as [[p1 t1] offs] eqn:Hf.
  destruct (stitch_stack p1 t1 r) as [[p2 t2] offss'] eqn:Hs'. inv Hs.
  destruct r as [|a2 r2].
  - cbn in Hs'. inv Hs'. cbn in Hr. eapply stitch_from_returned; eassumption.
  - pose proof (stitch_stack_length (a2 :: r2) p1 t1) as Hl. rewrite Hs' in Hl. cbn [snd] in Hl.
    destruct offss' as [|o os]; [discriminate|].
    eapply (IH p1 t1 _ _ _ c Hs'); [discriminate|]. exact Hr.
Qed.

Lemma obs_offered_out r o : obs_offered (enc_out16s r o) = map (map R16.code_of) (map oell (y_logs o)).
Proof.
  unfold obs_offered, enc_out16s, sx_nth. cbn [sx_list nth]. rewrite !map_map. apply map_ext. intros log.
  rewrite enc_onerrors_codes. reflexivity.
Qed.

Lemma is_prefix_map q r : is_prefix (map R16.code_of q) (map R16.code_of (q ++ r)) = true.
Proof. induction q as [|x q IH]; cbn; [reflexivity|]. now rewrite Z.eqb_refl, IH. Qed.

Lemma forall2b_offers (done : bool) : forall L offss,
  Forall2 lpre L offss -> (done = true -> L = offss) ->
  forall2b (fun o offs => is_prefix o (map R16.code_of offs) && (negb done || (length o =? length offs)%nat))
           (map (map R16.code_of) L) offss = true.
Proof.
  induction 1 as [|q o qs os (r & ->) Hf IH]; intros Hd; [reflexivity|]. cbn [map forall2b].
  rewrite is_prefix_map. cbn [andb]. apply andb_true_intro. split.
  - destruct done; [|reflexivity]. specialize (Hd eq_refl). injection Hd as Hq Hqs. cbn. rewrite map_length, <- Hq. apply Nat.eqb_refl.
  - apply IH. intros E. specialize (Hd E). injection Hd as _ Hqs. exact Hqs.
Qed.

Lemma bytes_prefix_app a r : bytes_prefix a (a ++ r) = true.
Proof. induction a as [|x a IH]; cbn; [reflexivity|]. now rewrite N.eqb_refl, IH. Qed.

Lemma bytes_prefix_true : forall a b, bytes_prefix a b = true -> exists rest, b = a ++ rest.
Proof.
  induction a as [|x a IH]; intros b Hp; [exists b; reflexivity|].
  destruct b as [|y b]; [discriminate|]. cbn in Hp. apply andb_true_iff in Hp as (Hx & Hp).
  apply N.eqb_eq in Hx. subst y. destruct (IH _ Hp) as (rest & ->). exists rest. reflexivity.
Qed.

Lemma expected_streaming m st : streaming m -> expected_slice m st = dropN (Z.to_N (m_off m)) st.
Proof. destruct m; try contradiction; intros _; cbn; rewrite ?dropN_0; reflexivity. Qed.

Lemma last_map {A B} (f : A -> B) l d : last (map f l) (f d) = f (last l d).
Proof. induction l as [|x l IH]; [reflexivity|]. destruct l; [reflexivity|]. cbn [map last] in *. exact IH. Qed.

Definition dom16s (inp : sx) : Prop :=
  dom16 inp /\ y_err (out16 inp) <> EFuel /\
  bad_param (g_size (q_cfg (dec_case16 inp))) (q_meth (dec_case16 inp)) = false /\
  streaming (q_meth (dec_case16 inp)).

Theorem mon16_silent_on_model_streaming : forall inp, dom16s inp -> mon16 inp (run16 inp) = [].
Proof.
  intros inp (Hdom & Hef & Hbp & Hs). pose proof Hdom as (Hne & Hwf & Hnf & Hpos).
  destruct (mon16 inp (run16 inp)) as [|k l] eqn:Hmon; [reflexivity|]. exfalso.
  assert (Hin : In k (mon16 inp (run16 inp))) by (rewrite Hmon; left; reflexivity). clear Hmon.
  destruct (Z.eq_dec k 3) as [->|Hk3]; [exact (clause_3_silent_on_model inp Hdom Hin)|].
  pose proof (clause_1_silent_on_model inp Hne) as H1.
  destruct (clauses_8_9_silent_on_model inp) as (H8 & H9). pose proof (clause_10_silent_on_model inp) as H10.
  rewrite run16_out16 in *. unfold mon16 in Hin.
  set (c := dec_case16 inp) in *. set (o := out16 inp) in *.
  pose proof (run_stack_streaming_facts (lookup (q_tbl c)) (q_cfg c) (stack_fuel (q_b0 c) (q_anss c))
                (q_b0 c) (q_anss c) (q_meth c) Hs Hne Hbp Hwf Hef Hnf) as Hfacts.
  pose proof (run_stack_completed_streaming (lookup (q_tbl c)) (q_cfg c) (stack_fuel (q_b0 c) (q_anss c))
                (q_b0 c) (q_anss c) (q_meth c) Hs Hne) as Hthm.
  cbv zeta in Hfacts, Hthm. change (run_stack _ _ _ _ _ _) with o in Hfacts, Hthm.
  destruct (piece_of (q_b0 c) 0) as [p0 t0].
  destruct (stitch_stack p0 t0 (q_anss c)) as [[st term] offss] eqn:Hspec.
  destruct Hfacts as (HA & HB).
  cbv zeta in Hin.
  rewrite H1 in Hin. rewrite H8, H9, H10 in Hin. rewrite Z.eqb_refl in Hin. cbv iota in Hin. cbn [app] in Hin.
  assert (Hnd : is_discard (q_meth c) = false) by (destruct (q_meth c); try contradiction; reflexivity).
  rewrite Hnd in Hin.
  assert (Hsb : match q_meth c with MIntoWriter | MToChunkReader _ _ _ | MToReader _ _ => true | _ => false end = true)
    by (destruct (q_meth c); try contradiction; reflexivity).
  rewrite Hsb in Hin.
  rewrite obs_offered_out, obs_code_out, obs_data_out in Hin.
  set (Lg := map oell (y_logs o)) in *.
  rewrite (completes_completed _ _ Hpos) in Hin.
  assert (Hcomp : completed (q_meth c) (y_err o) = true -> Lg = offss /\ term = EEof /\
            y_data o = expected_slice (q_meth c) st /\
            (bytes_trusted (lookup (q_tbl c)) (q_cfg c) (q_b0 c) (q_anss c) -> valid_bytes (lookup (q_tbl c)) (q_cfg c) st)).
  { intros Hc. destruct (Hthm Hc Hwf Hnf) as (st' & Hsp & Hd & Hv). inv Hsp. auto. }
  repeat (apply in_app_or in Hin; destruct Hin as [Hin|Hin]).
  - (* 2 *)
    destruct (returned _ _) as [c'|] eqn:Hret; [|contradiction].
    destruct (In_unless _ _ _ Hin) as [Hc2 _].
    apply orb_false_iff in Hc2. destruct Hc2 as (Hcode & Htl).
    assert (Hj : length (last (map (map R16.code_of) Lg) []) = length (last Lg [])).
    { change (@nil Z) with (map R16.code_of []). rewrite last_map, map_length. reflexivity. }
    rewrite Hj in Hret.
    destruct HB as [(He3 & _ & -> & HL)|(out & e & rest & Hen & Hst & Hdat & Herr & Hwh & Hend)].
    + rewrite HL in Hret. pose proof (stitch_stack_returned _ _ _ _ _ _ _ Hspec Hne Hret). discriminate.
    + destruct Hend as [(-> & HL)|[(-> & -> & HL)|(-> & Hlen)]].
      * rewrite HL in Hret. pose proof (stitch_stack_returned _ _ _ _ _ _ _ Hspec Hne Hret) as ->.
        assert (y_err o = ECode c') by (rewrite Herr; destruct (q_meth c); reflexivity).
        rewrite H in Hcode. cbn in Hcode. rewrite Z.eqb_refl in Hcode. discriminate.
      * rewrite HL in Hret. pose proof (stitch_stack_returned _ _ _ _ _ _ _ Hspec Hne Hret). discriminate.
      * assert (y_err o = ECode (g_code (q_cfg c))) by (rewrite Herr; destruct (q_meth c); reflexivity).
        rewrite H in Htl. cbn [R16.code_of] in Htl. rewrite Z.eqb_refl in Htl.
        apply N.ltb_lt in Hlen. rewrite Hlen in Htl. cbn in Htl. discriminate.
  - (* 3 *) destruct (In_when _ _ _ Hin) as [_ E]. congruence.
  - (* 4 *)
    destruct (In_unless _ _ _ Hin) as [Hc4 _].
    rewrite (forall2b_offers _ _ _ HA) in Hc4; [discriminate|]. intros Hc. exact (proj1 (Hcomp Hc)).
  - (* 7 *)
    destruct (In_when _ _ _ Hin) as [Hc7 _].
    apply andb_true_iff in Hc7. destruct Hc7 as (_ & Hc7). apply negb_true_iff in Hc7.
    change (expected (q_meth c) st) with (expected_slice (q_meth c) st) in Hc7.
    rewrite (expected_streaming _ _ Hs) in Hc7.
    destruct HB as [(_ & Hd0 & _)|(out & e & rest & Hen & Hst & Hdat & _)].
    + rewrite Hd0 in Hc7. discriminate.
    + rewrite Hdat, Hst in Hc7. destruct (dropN_prefix (Z.to_N (m_off (q_meth c))) out rest) as (r' & Hr').
      rewrite Hr', bytes_prefix_app in Hc7. discriminate.
  - (* 5 *)
    destruct (In_when _ _ _ Hin) as [Hc5 _].
    apply andb_true_iff in Hc5. destruct Hc5 as (Hc5 & Hlt). apply andb_true_iff in Hc5. destruct Hc5 as (Hc5 & Hnn).
    apply andb_true_iff in Hc5. destruct Hc5 as (Htr & Hnv).
    apply negb_true_iff in Hlt, Hnn, Hnv.
    destruct HB as [(_ & Hd0 & _)|(out & e & rest & Hen & Hst & Hdat & Herr & Hwh & Hend)].
    + rewrite Hd0 in Hnn. discriminate.
    + destruct (err_eqb e EEof) eqn:Hee.
      * destruct e; try discriminate.
        assert (Hc : completed (q_meth c) (y_err o) = true) by (rewrite Herr; destruct (q_meth c); try contradiction; reflexivity).
        destruct (Hcomp Hc) as (_ & -> & _ & Hv).
        rewrite (validb_valid _ _ _ (Hv (trusted_bytes _ _ _ _ Htr))) in Hnv. discriminate.
      * assert (Hne' : e <> EEof) by (intros ->; discriminate).
        assert (Hoff : 0 <= m_off (q_meth c)) by (eapply m_off_nonneg; exact Hbp).
        assert (Hlen : lenN (y_data o) = (lenN out - Z.to_N (m_off (q_meth c)))%N) by (rewrite Hdat; apply lenN_dropN).
        assert (Hpos' : (0 < lenN (y_data o))%N).
        { destruct (y_data o); [discriminate|]. unfold lenN. cbn. lia. }
        destruct (Hwh Hne') as [->|Hl]; [rewrite lenN_nil in Hlen; lia|].
        apply Z.ltb_ge in Hlt. lia.
Qed.
