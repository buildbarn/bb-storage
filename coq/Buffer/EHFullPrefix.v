(** C16 — "... or an error": whatever the outcome of a streaming method
    (IntoWriter, ToChunkReader, ToReader) on a stack of error handlers whose
    buffers all carry the object [C], the bytes the consumer has received are a
    PREFIX of the expected slice of [C]: nothing duplicated, nothing skipped,
    nothing foreign, also when the stream later fails (validation failure,
    handler error, out of fuel).

    The validating readers satisfy the carrier law themselves: they hand out
    what the reader underneath handed out (possibly withholding the last
    chunk), and say io.EOF only when the reader underneath did. *)
From Coq Require Import List ZArith NArith Bool Lia.
From BBS Require Import Buffer.Source Buffer.Validate Buffer.Convert Buffer.ErrHandler
  Buffer.StreamProofs Buffer.ValidateProofs Buffer.ConvertProofs Buffer.PreserveProofs Buffer.EHFullCarry
  Buffer.EHFullReader Buffer.EHFullStack.
Import ListNotations.
Open Scope N_scope.

Section VcrLaw.
  Variable H : bytes -> bytes.
  Variable cfg : vcfg.
  Variable S : Type.
  Variable rd : S -> (bytes * err) * S.
  Variable fuel : nat.
  Variable I : bytes -> S -> Prop.
  Hypothesis Hlaw : claw rd I.

  Definition I_v (C : bytes) (st : vst S) : Prop :=
    match v_err st with
    | ENone => I C (v_u st)
    | EEof => C = []
    | _ => True
    end.

  Lemma ran_law u bs ot u' C : ran S rd u bs ot u' -> I C u ->
    exists C', C = bs ++ C' /\ match ot with None => I C' u' | Some t => t = EEof -> C' = [] end.
  Proof.
    destruct ot as [t|]; cbn [ran]; intros Hx Hi;
      [exact (claw_drains _ _ _ Hlaw _ _ _ _ Hx _ Hi)|exact (claw_pulls _ _ _ Hlaw _ _ _ Hx _ Hi)].
  Qed.

  Lemma vcr_claw : claw (vcr_read H cfg rd fuel) I_v.
  Proof.
    intros st c e st' C Hr Hi. unfold I_v in Hi.
    destruct (v_err st) eqn:Herr;
      try (unfold vcr_read in Hr; rewrite Herr in Hr; inv Hr; eexists; rsplit; [reflexivity|..]; auto; try congruence;
           intros _; unfold I_v; rewrite Herr; exact Hi).
    destruct (vcr_read_did _ _ _ _ _ _ _ _ _ Hr Herr) as (Hce & Hok & r & ot & Hran & Hot).
    destruct (ran_law _ _ _ _ _ Hran Hi) as (C' & -> & HC'). exists (r ++ C'). rewrite app_assoc.
    (* at io.EOF, returned or kept for the next Read, nothing was withheld and the stream underneath has ended *)
    assert (Heof : v_err st' = EEof -> r ++ C' = []).
    { intros E. rewrite E in Hot. destruct ot as [t|]; [|destruct Hot; discriminate].
      destruct Hot as ([<-|(_ & ?)] & Hr0); [|discriminate]. rewrite (Hr0 eq_refl), (HC' eq_refl). reflexivity. }
    rsplit; [reflexivity| | |intros Hne; exact (proj1 (Hce Hne))].
    - intros ->. unfold I_v. destruct (Hok eq_refl) as [E|E]; rewrite E in *; [|exact (Heof eq_refl)].
      destruct ot as [t|]; [|destruct Hot as (-> & _); exact HC'].
      exfalso. pose proof (drains_not_none _ _ _ _ _ _ Hran). destruct Hot as ([?|(_ & ?)] & _); congruence.
    - intros ->. apply Heof. exact (proj2 (Hce ltac:(congruence))).
  Qed.

  Lemma I_v_init C u : I C u -> I_v C (vinit cfg u).
  Proof. intros Hi. unfold I_v. cbn. exact Hi. Qed.
End VcrLaw.

Section VrLaw.
  Variable H : bytes -> bytes.
  Variable cfg : vcfg.
  Variable S : Type.
  Variable rd : N -> S -> (bytes * err) * S.
  Variable fuel : nat.
  Variable I : bytes -> S -> Prop.
  Hypothesis Hlaw : rlaw rd I.
  Variable P : S -> Prop.
  Hypothesis rd_P : forall cap s c e s', P s -> rd cap s = ((c, e), s') -> e <> EUnexp /\ (e = ENone -> P s').

  Definition I_vr (C : bytes) (st : vst S) : Prop :=
    match v_err st with
    | ENone => I C (v_u st) /\ P (v_u st)
    | EEof => C = []
    | _ => True
    end.

  Lemma rran_law u bs ot u' C : rran S rd u bs ot u' -> I C u ->
    exists C', C = bs ++ C' /\ match ot with None => I C' u' | Some t => t = EEof -> C' = [] end.
  Proof.
    destruct ot as [t|]; cbn [rran]; intros Hx Hi;
      [exact (rlaw_rdrains _ _ _ Hlaw _ _ _ _ Hx _ Hi)|exact (rlaw_rpulls _ _ _ Hlaw _ _ _ Hx _ Hi)].
  Qed.

  Lemma vr_rlaw : rlaw (vr_read H cfg rd fuel) I_vr.
  Proof.
    intros cap st c e st' C Hr Hi. unfold I_vr in Hi.
    destruct (v_err st) eqn:Herr;
      try (unfold vr_read in Hr; rewrite Herr in Hr; inv Hr; eexists; rsplit; [reflexivity|..]; auto; try congruence;
           intros _; unfold I_vr; rewrite Herr; exact Hi).
    destruct Hi as (Hi & Hp).
    destruct (vr_read_did _ _ _ _ _ _ _ _ _ _ Hr Herr) as (He & r & ot & Hran & Hot).
    destruct (rran_law _ _ _ _ _ Hran Hi) as (C' & -> & HC'). exists (r ++ C'). rewrite app_assoc.
    split; [reflexivity|]. unfold I_vr. rewrite He. clear He. destruct ot as [t|]; cbn [rran] in Hran.
    - pose proof (rdrains_no_unexp _ _ _ rd_P _ _ _ _ Hran Hp) as Hnu.
      pose proof (ReaderBufferProofs.rdrains_not_none _ _ _ _ _ _ Hran) as Hnn.
      (* io.EOF comes only with all of the stream underneath, which ended with io.EOF *)
      destruct Hot as [(_ & [(-> & ?)|[(_ & ->)|(-> & _)]])|(-> & -> & [->|?] & _)]; try congruence;
        try (split; intros; congruence). split; [discriminate|intros _; exact (HC' eq_refl)].
    - destruct Hot as [(-> & -> & _)|(_ & [->|(-> & _)])]; try (split; intros; congruence).
      split; [intros _; split; [exact HC'|exact (rpulls_P _ _ _ rd_P _ _ _ Hran Hp)]|discriminate].
  Qed.

  Lemma I_vr_init C u : I C u -> P u -> I_vr C (vinit cfg u).
  Proof. intros Hi Hp. unfold I_vr. cbn. auto. Qed.
End VrLaw.

Section ConsumerLaws.
  Variable S : Type.
  Lemma drain_law (rd : S -> (bytes * err) * S) I : claw rd I ->
    forall f out0 s out e s' C, drain rd f out0 s = ((out, e), s') -> I C s ->
    exists d C', out = out0 ++ d /\ C = d ++ C'.
  Proof.
    intros Hlaw. induction f as [|f IH]; intros out0 s out e s' C Hd Hi; cbn [drain] in Hd.
    - inv Hd. exists [], C. rewrite app_nil_r. auto.
    - destruct (rd s) as [[c e0] s1] eqn:Hr. destruct (Hlaw _ _ _ _ _ Hr Hi) as (C1 & -> & Hn & _ & _).
      destruct e0; try (inv Hd; exists [], (c ++ C1); rewrite app_nil_r; auto; fail).
      destruct (IH _ _ _ _ _ _ Hd (Hn eq_refl)) as (d & C' & -> & ->).
      exists (c ++ d), C'. rewrite <- !app_assoc. auto.
  Qed.
  Lemma rconsume_law (rd : N -> S -> (bytes * err) * S) I : rlaw rd I ->
    forall f caps lc out0 s out e s' C, rconsume rd f caps lc out0 s = ((out, e), s') -> I C s ->
    exists d C', out = out0 ++ d /\ C = d ++ C'.
  Proof.
    intros Hlaw. induction f as [|f IH]; intros caps lc out0 s out e s' C Hd Hi; cbn [rconsume] in Hd.
    - inv Hd. exists [], C. rewrite app_nil_r. auto.
    - destruct (rd (hd lc caps) s) as [[c e0] s1] eqn:Hr. destruct (Hlaw _ _ _ _ _ _ Hr Hi) as (C1 & -> & Hn & _).
      destruct e0; try (inv Hd; exists c, C1; auto; fail).
      destruct (IH _ _ _ _ _ _ _ _ Hd (Hn eq_refl)) as (d & C' & -> & ->).
      exists (c ++ d), C'. rewrite <- !app_assoc. auto.
  Qed.
End ConsumerLaws.

Lemma byte_slice_stream_prefix fuel data cbs closed m :
  match m with MIntoWriter | MToChunkReader _ _ _ | MToReader _ _ => True | _ => False end ->
  exists rest, expected_slice m data = o_data (byte_slice_buffer fuel data cbs closed m) ++ rest.
Proof.
  destruct m; try contradiction; intros _; cbn [byte_slice_buffer expected_slice].
  - exists []. cbn. now rewrite app_nil_r.
  - destruct (valid_offset (lenN data) off) eqn:Hv; [|cbn; eauto].
    destruct (drain (bs_read max) fuel [] (dropN (Z.to_N off) data)) as [[out e] s] eqn:Hd.
    destruct (extra_reads (bs_read max) extra s) as [ex s2]. cbn [o_data].
    destruct (drain_law _ _ _ (bs_claw max) _ _ _ _ _ _ _ Hd eq_refl) as (d & C' & -> & E). cbn [app]. eauto.
  - destruct (rconsume bb_read fuel caps (last_cap caps) [] data) as [[out e] s] eqn:Hr.
    destruct (rextra bb_read extra (last_cap caps) s) as [ex s2]. cbn [o_data].
    destruct (rconsume_law _ _ _ bb_rlaw _ _ _ _ _ _ _ _ _ Hr eq_refl) as (d & C' & -> & E). cbn [app]. eauto.
Qed.

Lemma weh_inr_known : forall n b h b' h',
  with_error_handler n b h = (inr b', h') -> match b' with BBytes _ | BError _ => True | _ => False end.
Proof.
  induction n as [|n IH]; intros b h b' h' Hw; destruct b; cbn [with_error_handler] in Hw; try (inv Hw; exact Logic.I).
  - destruct (on_error h (ECode c)) as [a h1]. destruct a; inv Hw; exact Logic.I.
  - destruct (on_error h (ECode c)) as [a h1]. destruct a; [eapply IH; eassumption|inv Hw; exact Logic.I].
Qed.

Section PrefixMethods.
  Variable H : bytes -> bytes.
  Variable cfg : vcfg.
  Variable fuel : nat.
  Variable C : bytes.

  Definition streaming (m : meth) : Prop :=
    match m with MIntoWriter | MToChunkReader _ _ _ | MToReader _ _ => True | _ => False end.

  Theorem ehs_method_prefix b w m :
    carries_full C b -> hs_carry C (w_act w) -> streaming m ->
    exists rest, expected_slice m C = y_data (ehs_method H cfg fuel b w m) ++ rest.
  Proof.
    intros Hc Hh Hm. destruct m; try contradiction; cbn [ehs_method expected_slice].
    - (* IntoWriter *)
      unfold into_writer_cr. destruct (drain _ fuel [] _) as [[out e] st] eqn:Hd. cbn [y_data].
      unfold shv_read in Hd.
      destruct (drain_law _ _ _ (vcr_claw H cfg _ _ fuel _ (sch_claw C fuel 65536 fuel)) _ _ _ _ _ _ _ Hd
                  (I_v_init cfg _ _ _ _ (sch_init_carries fuel C _ _ Hc Hh))) as (d & C' & -> & E).
      cbn [app]. eauto.
    - (* ToChunkReader *)
      destruct (valid_offset (g_size cfg) off) eqn:Hv; [|cbn; eauto].
      destruct (drain _ fuel [] _) as [[out e] o] eqn:Hd.
      destruct (extra_reads _ extra o) as [ex o2]. cbn [y_data].
      unfold valid_offset in Hv. apply andb_true_iff in Hv. destruct Hv as (Hpos & _). apply Z.leb_le in Hpos.
      unfold shv_read in Hd.
      pose proof (vcr_claw H cfg _ _ fuel _ (sch_claw C fuel max fuel)) as Hcl.
      destruct (drain_law _ _ _ (offset_claw2 _ _ _ Hcl) _ _ _ _ _ _ _ Hd
                  (offset_init_law2 _ _ shv_close _ Hcl fuel off _ _
                     (I_v_init cfg _ _ _ _ (sch_init_carries fuel C _ _ Hc Hh)) Hpos)) as (d & C' & -> & E).
      cbn [app]. eauto.
    - (* ToReader *)
      destruct (rconsume _ fuel caps _ [] _) as [[out e] st] eqn:Hr.
      destruct (rextra _ extra _ st) as [ex st2]. cbn [y_data].
      unfold shrv_read in Hr.
      destruct (rconsume_law _ _ _ (vr_rlaw H cfg _ _ fuel _ (shr_rlaw C fuel) _ (shr_read_nu fuel)) _ _ _ _ _ _ _ _ _ Hr
                  (I_vr_init cfg _ _ _ _ _ (shr_init_carries fuel C _ _ Hc Hh) (urd_open_nu fuel b 0)))
        as (d & C' & -> & E).
      cbn [app]. eauto.
  Qed.

  Lemma stack_active_stays : forall rest w0 b0 b2 w2,
    w_act w0 <> [] -> stack_handlers b0 w0 rest = (b2, w2) -> w_act w2 <> [].
  Proof.
    induction rest as [|h2 rest IH]; intros w0 b0 b2 w2 Hn Hs; cbn [stack_handlers] in Hs.
    - inv Hs. exact Hn.
    - destruct (w_act w0) as [|a0 act0] eqn:Ea; [congruence|].
      eapply IH; [|exact Hs]. cbn. discriminate.
  Qed.

  Lemma stack_handlers_known : forall hs b w b' w',
    stack_handlers b w hs = (b', w') -> hs <> [] -> w_act w = [] -> w_act w' = [] ->
    match b' with BBytes _ | BError _ => True | _ => False end.
  Proof.
    induction hs as [|h rest IH]; intros b w b' w' Hs Hne Hw Hw'; [congruence|].
    cbn [stack_handlers] in Hs. rewrite Hw in Hs.
    destruct (with_error_handler _ b h) as [r h'] eqn:Hweh. destruct r as [b1|b1].
    - exfalso. eapply stack_active_stays; [|exact Hs|exact Hw']. cbn. discriminate.
    - destruct rest as [|h2 rest2].
      + cbn [stack_handlers] in Hs. inv Hs. eapply weh_inr_known; eassumption.
      + eapply IH; [exact Hs|discriminate|reflexivity|exact Hw'].
  Qed.

  Theorem run_stack_delivered_prefix b0 anss m :
    carries_full C b0 -> Forall (Forall (ans_carries C)) anss -> anss <> [] -> streaming m ->
    exists rest, expected_slice m C = y_data (run_stack H cfg fuel b0 anss m) ++ rest.
  Proof.
    intros Hc Hall Hne Hm. unfold run_stack.
    destruct (stack_handlers b0 _ _) as [b w] eqn:Hs.
    assert (Hhs : hs_carry C (map (fun a => mkHst a []) anss)).
    { unfold hs_carry, h_carry. rewrite Forall_map. cbn. exact Hall. }
    destruct (stack_handlers_carry C _ _ _ _ _ Hs Hc ltac:(constructor) Hhs) as (Hc' & Hw').
    destruct (w_act w) as [|a act] eqn:Ea.
    - cbn [y_data].
      assert (Hk : match b with BBytes _ | BError _ => True | _ => False end).
      { eapply stack_handlers_known; [exact Hs| |reflexivity|exact Ea]. destruct anss; [congruence|discriminate]. }
      destruct b as [evs|evs a0|d|x]; try contradiction; cbn [plain].
      + cbn in Hc'. subst d. apply byte_slice_stream_prefix. destruct m; try contradiction; exact Logic.I.
      + exists (expected_slice m C). destruct m; reflexivity.
    - apply ehs_method_prefix; try assumption. rewrite Ea. exact Hw'.
  Qed.
End PrefixMethods.
