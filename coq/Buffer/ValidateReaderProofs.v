(** C09 — casValidatingReader over ANY underlying io.Reader whose remaining
    content is described by a function [cont] (what is still to come, and how
    it ends): completion implies validity, withholding, callback soundness,
    stickiness. *)
From Coq Require Import List ZArith NArith Bool Lia.
From BBS Require Import Buffer.Source Buffer.Validate Buffer.StreamProofs Buffer.ValidateProofs.
Import ListNotations.
Open Scope N_scope.

(** streams of an io.Reader: reads with arbitrary buffer sizes; data that
    comes together with the final error counts as received *)
Section ReaderStreams.
  Variable S : Type.
  Variable rd : N -> S -> (bytes * err) * S.
  Inductive rpulls : S -> bytes -> S -> Prop :=
  | rpulls_nil s : rpulls s [] s
  | rpulls_step cap s c s' bs s'' :
      rd cap s = ((c, ENone), s') -> rpulls s' bs s'' -> rpulls s (c ++ bs) s''.
  Inductive rdrains : S -> bytes -> err -> S -> Prop :=
  | rdrains_end cap s c e s' : rd cap s = ((c, e), s') -> e <> ENone -> rdrains s c e s'
  | rdrains_step cap s c s' bs e s'' :
      rd cap s = ((c, ENone), s') -> rdrains s' bs e s'' -> rdrains s (c ++ bs) e s''.

  Lemma rdrains_failed s bs e s' : rdrains s bs e s' -> e <> ENone.
  Proof. induction 1; auto. Qed.
End ReaderStreams.
Arguments rpulls {S}. Arguments rdrains {S}.

(** What one Read of the casValidatingReader asks of the reader underneath and what it makes of
    the answer; a reader that says io.ErrUnexpectedEOF by itself is taken for one at io.EOF. *)
Section VrDid.
  Variable H : bytes -> bytes.
  Variable cfg : vcfg.
  Variable S : Type.
  Variable rd : N -> S -> (bytes * err) * S.
  Notation gc := (ECode (g_code cfg)).

  Definition rran (u : S) (bs : bytes) (ot : option err) (u' : S) : Prop :=
    match ot with None => rpulls rd u bs u' | Some t => rdrains rd u bs t u' end.

  Lemma rran_cons cap u c u1 bs ot u' : rd cap u = ((c, ENone), u1) -> rran u1 bs ot u' -> rran u (c ++ bs) ot u'.
  Proof. destruct ot; intros Hr Hx; [eapply rdrains_step|eapply rpulls_step]; eassumption. Qed.

  Definition read_full_did (want : N) (res : bytes) (fe : err) (ot : option err) : Prop :=
    match ot with
    | None => fe = EFuel \/ (fe = ENone /\ want <= lenN res)
    | Some t => (fe = ENone /\ want <= lenN res) \/ (fe = t /\ (t = EEof -> res = [])) \/
                (t = EEof /\ fe = EUnexp /\ res <> [])
    end.

  Lemma read_full_trace : forall f want got s res fe s',
    read_full_loop rd f want got s = ((res, fe), s') ->
    exists d ot, res = got ++ d /\ rran s d ot s' /\ read_full_did want res fe ot /\ (fe <> ENone -> lenN res < want).
  Proof.
    induction f as [|f IH]; intros want got s res fe s' Hr; cbn [read_full_loop] in Hr;
      destruct (want <=? lenN got) eqn:Ew.
    - inv Hr. apply N.leb_le in Ew. exists [], None. rewrite app_nil_r. rsplit; [reflexivity|constructor|right; auto|congruence].
    - inv Hr. apply N.leb_gt in Ew. exists [], None. rewrite app_nil_r. rsplit; [reflexivity|constructor|left; reflexivity|auto].
    - inv Hr. apply N.leb_le in Ew. exists [], None. rewrite app_nil_r. rsplit; [reflexivity|constructor|right; auto|congruence].
    - destruct (rd (want - lenN got) s) as [[c e0] s1] eqn:Hrd.
      assert (Herr : e0 <> ENone ->
        (if want <=? lenN (got ++ c) then ((got ++ c, ENone), s1)
         else match e0 with
              | EEof => ((got ++ c, if is_nil (got ++ c) then EEof else EUnexp), s1)
              | _ => ((got ++ c, e0), s1)
              end) = ((res, fe), s') ->
        exists d ot, res = got ++ d /\ rran s d ot s' /\ read_full_did want res fe ot /\ (fe <> ENone -> lenN res < want)).
      { intros Hne Hx. exists c, (Some e0). assert (Hd : rdrains rd s c e0 s1) by (eapply rdrains_end; eassumption).
        destruct (want <=? lenN (got ++ c)) eqn:Ew2.
        - apply N.leb_le in Ew2. inv Hx. rsplit; [reflexivity|exact Hd|left; auto|congruence].
        - apply N.leb_gt in Ew2. destruct e0; try congruence;
            try (inv Hx; (rsplit; [reflexivity|exact Hd| |auto]); right; left; split; [reflexivity|discriminate]).
          destruct (is_nil (got ++ c)) eqn:En; inv Hx; (rsplit; [reflexivity|exact Hd| |auto]); right.
          + left. split; [reflexivity|]. intros _. now apply is_nil_true.
          + right. rsplit; auto. intros E. rewrite E in En. discriminate. }
      destruct e0; try (apply Herr; [congruence|exact Hr]).
      destruct (IH _ _ _ _ _ _ Hr) as (d & ot & E & Hx & Hc & Hl). exists (c ++ d), ot.
      rsplit; [rewrite app_assoc; exact E|exact (rran_cons _ _ _ _ _ _ _ Hrd Hx)|exact Hc|exact Hl].
  Qed.

  (** [c ++ r]: what the reader underneath handed out during the call *)
  Definition vr_full (st : vst S) (c : bytes) (e : err) (st' : vst S) : Prop :=
    exists r ot, rran (v_u st) (c ++ r) ot (v_u st') /\
      match ot with
      | None =>
          (e = ENone /\ r = [] /\ v_acc st' = v_acc st ++ c /\ v_rem st' + lenN c = v_rem st /\ 0 < v_rem st' /\
           v_cbs st' = v_cbs st) \/
          (c = [] /\ ((e = EFuel /\ v_cbs st' = v_cbs st) \/
                      (e = gc /\ v_rem st < lenN r /\ v_cbs st' = v_cbs st ++ [false])))
      | Some t =>
          (c = [] /\
           ((e = t /\ t <> EEof /\ lenN r <= v_rem st /\ v_cbs st' = v_cbs st) \/
            ((t = EEof \/ t = EUnexp) /\ e = gc /\ lenN r <= v_rem st /\
             (lenN r <> v_rem st \/ g_hash cfg <> H (v_acc st ++ r)) /\ v_cbs st' = v_cbs st ++ [false]) \/
            (e = gc /\ v_rem st < lenN r /\ v_cbs st' = v_cbs st ++ [false]))) \/
          (e = EEof /\ r = [] /\ (t = EEof \/ t = EUnexp) /\ lenN c = v_rem st /\ g_hash cfg = H (v_acc st ++ c) /\
           v_cbs st' = v_cbs st ++ [true])
      end.

  Lemma vr_compare_did (st st1 : vst S) data t d0 e0 st0 :
    v_acc st1 = v_acc st ++ data -> v_cbs st1 = v_cbs st -> v_rem st - lenN data = 0 -> lenN data <= v_rem st ->
    rran (v_u st) data (Some t) (v_u st1) -> t = EEof \/ t = EUnexp ->
    (let '(e', st') := vr_compare H cfg st1 in
     match e' with ENone => ((data, EEof), v_notify st' true) | _ => (([], e'), st') end) = ((d0, e0), st0) ->
    vr_full st d0 e0 st0.
  Proof.
    intros Ha Hcb Hz Hlt Hx Ht. unfold vr_compare, v_fail. rewrite Ha.
    destruct (bytes_eqb (g_hash cfg) (H (v_acc st ++ data))) eqn:Eh; intros Hy; injection Hy as <- <- <-.
    - apply bytes_eqb_eq in Eh. exists [], (Some t). cbn [v_notify v_u v_cbs]. rewrite app_nil_r, Hcb. split; [exact Hx|].
      right. rsplit; auto. lia.
    - exists data, (Some t). cbn [app v_notify v_u v_cbs]. rewrite Hcb. split; [exact Hx|]. left. split; [reflexivity|]. right. left.
      rsplit; auto. right. intros E. apply bytes_eqb_eq in E. congruence.
  Qed.

  Lemma vr_probe_did (st st2 : vst S) data fin fe ot d0 e0 st0 :
    v_acc st2 = v_acc st ++ data -> v_cbs st2 = v_cbs st -> v_rem st2 = 0 -> v_rem st - lenN data = 0 -> lenN data <= v_rem st ->
    rran (v_u st) (data ++ fin) ot (v_u st2) -> read_full_did 1 fin fe ot -> fe = ENone \/ fe = EEof \/ fe = EUnexp ->
    (if v_rem st2 <? lenN fin then let '(e', st') := v_fail cfg st2 in (([], e'), st')
     else let '(e', st') := vr_compare H cfg st2 in
          match e' with ENone => ((data, EEof), v_notify st' true) | _ => (([], e'), st') end) = ((d0, e0), st0) ->
    vr_full st d0 e0 st0.
  Proof.
    intros Ha Hcb Hz2 Hz Hlt Hall Hfd Hfe. destruct (v_rem st2 <? lenN fin) eqn:Hlt2.
    - apply N.ltb_lt in Hlt2. unfold v_fail. intros Hy. injection Hy as <- <- <-.
      assert (Hlen : v_rem st < lenN (data ++ fin)) by (rewrite lenN_app; lia).
      exists (data ++ fin), ot. cbn [app v_notify v_u v_cbs]. rewrite Hcb. split; [exact Hall|]. destruct ot; [left|right]; auto 10.
    - apply N.ltb_ge in Hlt2. assert (fin = []) by (apply lenN_zero; lia). subst fin. rewrite app_nil_r in Hall.
      (* the probe got nothing: the reader's stream has ended *)
      destruct ot as [t|]; cbn [read_full_did] in Hfd;
        [|destruct Hfd as [->|(_ & Hl)]; [destruct Hfe as [?|[?|?]]; discriminate|rewrite lenN_nil in Hl; lia]].
      destruct Hfd as [(_ & Hl)|[(<- & _)|(_ & _ & Hn)]]; [rewrite lenN_nil in Hl; lia| |congruence].
      pose proof (rdrains_failed _ _ _ _ _ _ Hall) as Hn.
      apply (vr_compare_did st st2 data fe); auto. destruct Hfe as [?|[?|?]]; [congruence|auto|auto].
  Qed.

  Lemma vr_read_full fuel cap (st : vst S) c e st' :
    vr_read H cfg rd fuel cap st = ((c, e), st') -> v_err st = ENone -> v_err st' = e /\ vr_full st c e st'.
  Proof.
    unfold vr_read. intros Hr Herr. rewrite Herr in Hr.
    destruct (vr_do_read H cfg rd fuel cap st) as [[d0 e0] st0] eqn:Hdo. injection Hr as <- <- <-.
    split; [reflexivity|]. change (vr_full st d0 e0 st0).
    unfold vr_do_read in Hdo. destruct (rd cap (v_u st)) as [[data re] u'] eqn:Hrd.
    cbn [v_set_u v_rem v_u v_acc v_err v_cbs] in Hdo.
    assert (Hone : rran (v_u st) data (match re with ENone => None | _ => Some re end) u').
    { destruct re; cbn; try (eapply rdrains_end; [eassumption|congruence]).
      rewrite <- (app_nil_r data). eapply rpulls_step; [eassumption|constructor]. }
    destruct (v_rem st <? lenN data) eqn:Hlt.
    { apply N.ltb_lt in Hlt. unfold v_fail in Hdo. injection Hdo as <- <- <-.
      exists data. eexists. cbn [app v_notify v_u v_cbs]. split; [exact Hone|]. destruct re; [right|left..]; auto 10. }
    apply N.ltb_ge in Hlt.
    destruct re; cbn [v_rem v_u v_acc v_err v_cbs] in Hdo;
      try (injection Hdo as <- <- <-; exists data; eexists; cbn [app v_u v_cbs]; (split; [exact Hone|]);
           left; split; [reflexivity|left; rsplit; auto; discriminate]).
    - destruct (v_rem st - lenN data =? 0) eqn:Hz.
      + apply N.eqb_eq in Hz.
        destruct (read_full rd fuel 1 u') as [[fin fe] u''] eqn:Hf. cbn [v_set_u v_rem v_u v_acc v_err v_cbs] in Hdo.
        unfold read_full in Hf. destruct (read_full_trace _ _ _ _ _ _ _ Hf) as (d & ot & Ed & Hx & Hfd & Hfl). cbn [app] in Ed. subst d.
        pose proof (rran_cons _ _ _ _ _ _ _ Hrd Hx) as Hall.
        destruct fe;
          try (refine (vr_probe_did st (mkVst u'' (v_rem st - lenN data) (v_acc st ++ data) (v_err st) (v_cbs st)) data fin _ ot
                         d0 e0 st0 eq_refl eq_refl Hz Hz Hlt Hall Hfd _ Hdo); auto; fail);
          (* the probe failed with the reader's own error (or ran out of fuel): it got no byte *)
          (assert (Hlen : lenN (data ++ fin) <= v_rem st) by (rewrite lenN_app; specialize (Hfl ltac:(discriminate)); lia));
          injection Hdo as <- <- <-; exists (data ++ fin), ot; cbn [app v_u v_cbs]; (split; [exact Hall|]);
          (destruct ot as [t|]; cbn [read_full_did] in Hfd;
           [destruct Hfd as [(? & _)|[(<- & _)|(_ & ? & _)]]; try discriminate; left; split; [reflexivity|left; rsplit; auto; discriminate]
           |destruct Hfd as [?|(? & _)]; try discriminate; right; auto]).
      + apply N.eqb_neq in Hz. injection Hdo as <- <- <-. exists [], None. cbn [v_u v_acc v_rem v_cbs]. rewrite app_nil_r.
        split; [exact Hone|]. left. rsplit; auto; lia.
    - destruct (negb (v_rem st - lenN data =? 0)) eqn:Hz.
      + apply negb_true_iff, N.eqb_neq in Hz. unfold v_fail in Hdo. injection Hdo as <- <- <-. exists data, (Some EEof).
        cbn [app v_notify v_u v_cbs]. split; [exact Hone|]. left. split; [reflexivity|]. right. left. rsplit; auto. left. lia.
      + apply negb_false_iff, N.eqb_eq in Hz. exact (vr_compare_did st (mkVst u' (v_rem st - lenN data) (v_acc st ++ data) (v_err st) (v_cbs st)) data EEof
                 d0 e0 st0 eq_refl eq_refl Hz Hlt Hone (or_introl eq_refl) Hdo).
  Qed.

  Definition vr_ran (st : vst S) (c : bytes) (e : err) (st' : vst S) : Prop :=
    exists r ot, rran (v_u st) (c ++ r) ot (v_u st') /\
      match ot with
      | None =>
          (e = ENone /\ r = [] /\ v_acc st' = v_acc st ++ c /\ v_rem st' + lenN c = v_rem st /\ 0 < v_rem st') \/
          (c = [] /\ (e = EFuel \/ (e = gc /\ v_rem st < lenN r)))
      | Some t =>
          (c = [] /\ ((e = t /\ t <> EEof) \/ ((t = EEof \/ t = EUnexp) /\ e = gc) \/ (e = gc /\ v_rem st < lenN r))) \/
          (e = EEof /\ r = [] /\ (t = EEof \/ t = EUnexp) /\ lenN c = v_rem st /\ g_hash cfg = H (v_acc st ++ c))
      end.
  Definition vr_did (st : vst S) (c : bytes) (e : err) (st' : vst S) : Prop := v_err st' = e /\ vr_ran st c e st'.

  Lemma vr_read_did fuel cap (st : vst S) c e st' :
    vr_read H cfg rd fuel cap st = ((c, e), st') -> v_err st = ENone -> vr_did st c e st'.
  Proof.
    intros Hr Herr. destruct (vr_read_full _ _ _ _ _ _ Hr Herr) as (He & r & ot & Hran & Hot).
    split; [exact He|]. exists r, ot. split; [exact Hran|]. destruct ot as [t|].
    - destruct Hot as [(-> & [(A & B & _)|[(A & B & _)|(A & B & _)]])|(A & B & C & D & E & _)]; auto 8.
    - destruct Hot as [(A & B & C & D & E & _)|(-> & [(A & _)|(A & B & _)])]; auto 8.
  Qed.
End VrDid.

Section VrProofs.
  Variable H : bytes -> bytes.
  Variable cfg : vcfg.
  Variable S : Type.
  Variable rd : N -> S -> (bytes * err) * S.
  Variable fuel : nat.

  (** what the underlying reader still has to deliver and how that ends *)
  Variable cont : S -> bytes * err.
  Hypothesis rd_spec : forall cap s c e s', rd cap s = ((c, e), s') ->
    match e with
    | ENone => cont s = (c ++ fst (cont s'), snd (cont s'))
    | _ => cont s = (c, e)
    end.

  Notation vrd := (vr_read H cfg rd fuel).

  Definition valid_reader (s0 : S) : Prop :=
    snd (cont s0) = EEof /\ lenN (fst (cont s0)) = g_size cfg /\ g_hash cfg = H (fst (cont s0)).
  Definition rcb_ok (s0 : S) (cbs : list bool) : Prop :=
    (In true cbs -> valid_reader s0) /\ (In false cbs -> ~ valid_reader s0).

  Lemma rcb_ok_true s0 cbs : rcb_ok s0 cbs -> valid_reader s0 -> rcb_ok s0 (cbs ++ [true]).
  Proof.
    intros [Ht Hf] Hv. split; intros Hin; [exact Hv|].
    apply in_app_or in Hin. destruct Hin as [Hin|[Hin|[]]]; [auto|discriminate].
  Qed.
  Lemma rcb_ok_false s0 cbs : rcb_ok s0 cbs -> ~ valid_reader s0 -> rcb_ok s0 (cbs ++ [false]).
  Proof.
    intros [Ht Hf] Hv. split; intros Hin; [|exact Hv].
    apply in_app_or in Hin. destruct Hin as [Hin|[Hin|[]]]; [auto|discriminate].
  Qed.

  Hypothesis rd_no_unexp : forall cap s c e s', rd cap s = ((c, e), s') -> e <> EUnexp.

  Lemma rpulls_cont u bs u' : rpulls rd u bs u' -> cont u = (bs ++ fst (cont u'), snd (cont u')).
  Proof.
    induction 1 as [s|cap s c s1 bs s2 Hr _ IH]; [apply surjective_pairing|].
    rewrite (rd_spec _ _ _ _ _ Hr), IH. cbn [fst snd]. now rewrite app_assoc.
  Qed.
  Lemma rdrains_cont u bs t u' : rdrains rd u bs t u' -> cont u = (bs, t) /\ t <> EUnexp.
  Proof.
    induction 1 as [cap s c e s1 Hr Hne|cap s c s1 bs e s2 Hr _ [IH Hnu]]; pose proof (rd_spec _ _ _ _ _ Hr) as Hs.
    - split; [destruct e; congruence|exact (rd_no_unexp _ _ _ _ _ Hr)].
    - split; [|exact Hnu]. cbn iota in Hs. rewrite Hs, IH. reflexivity.
  Qed.

  (** io.ReadFull(r, p[:1]) *)
  Lemma read_full_one f : forall s fin fe s',
    read_full_loop rd f 1 [] s = ((fin, fe), s') ->
    (exists rest, fst (cont s) = fin ++ rest) /\
    match fe with
    | ENone => fin <> []
    | EEof => fin = [] /\ cont s = ([], EEof)
    | EUnexp => False
    | ECode x => fin = [] /\ cont s = ([], ECode x)
    | EFuel => True
    end.
  Proof.
    intros s fin fe s' Hr. destruct (read_full_trace _ _ _ _ _ _ _ _ _ Hr) as (d & ot & Ed & Hx & Hfd & Hfl).
    cbn [app] in Ed. subst d.
    assert (Hnil : fe <> ENone -> fin = []) by (intros Hne; apply lenN_zero; specialize (Hfl Hne); lia).
    destruct ot as [t|]; cbn [rran read_full_did] in Hx, Hfd.
    - destruct (rdrains_cont _ _ _ _ Hx) as (Hc & Hnu). pose proof (rdrains_failed _ _ _ _ _ _ Hx) as Hnn.
      split; [exists []; rewrite Hc, app_nil_r; reflexivity|].
      destruct Hfd as [(-> & Hl)|[(-> & _)|(_ & -> & Hne)]].
      + intros ->. rewrite lenN_nil in Hl. lia.
      + rewrite (Hnil Hnn) in Hc |- *. destruct t; try congruence; auto.
      + apply Hne, Hnil. discriminate.
    - rewrite (rpulls_cont _ _ _ Hx). split; [eexists; reflexivity|].
      destruct Hfd as [->|(-> & Hl)]; [exact I|]. intros ->. rewrite lenN_nil in Hl. lia.
  Qed.

  Definition RInv (s0 : S) (st : vst S) (out : bytes) : Prop :=
    rcb_ok s0 (v_cbs st) /\
    match v_err st with
    | ENone => fst (cont s0) = out ++ fst (cont (v_u st)) /\ snd (cont s0) = snd (cont (v_u st)) /\
               v_acc st = out /\ v_rem st + lenN out = g_size cfg /\ (0 < v_rem st \/ out = [])
    | EEof => cont s0 = (out, EEof) /\ lenN out = g_size cfg /\ g_hash cfg = H out
    | _ => lenN out < g_size cfg \/ out = []
    end.

  Lemma RInv_init u0 : RInv u0 (vinit cfg u0) [].
  Proof.
    split; [split; intros []|]. cbn. rsplit; auto. unfold lenN; cbn; lia.
  Qed.

  (* [C09FullReader.rorigin], stated there for the theorems, is this predicate *)
  Definition rfailure (s0 : S) (e : err) : Prop :=
    e = EFuel \/
    (e = ECode (g_code cfg) /\ ~ valid_reader s0 /\
     (g_size cfg < lenN (fst (cont s0)) \/ snd (cont s0) = EEof)) \/
    (e = snd (cont s0) /\ e <> EEof /\ lenN (fst (cont s0)) <= g_size cfg).

  Lemma rfails_too_long s0 pre rest :
    fst (cont s0) = pre ++ rest -> g_size cfg < lenN pre ->
    ~ valid_reader s0 /\ rfailure s0 (ECode (g_code cfg)).
  Proof.
    intros E Hl. assert (Hlong : g_size cfg < lenN (fst (cont s0))) by (rewrite E, lenN_app; lia).
    assert (Hnv : ~ valid_reader s0) by (intros (_ & Hs & _); lia).
    split; [exact Hnv|]. right. left. auto.
  Qed.

  Lemma rfails_at_eof s0 c :
    cont s0 = (c, EEof) -> lenN c <> g_size cfg \/ g_hash cfg <> H c ->
    ~ valid_reader s0 /\ rfailure s0 (ECode (g_code cfg)).
  Proof.
    intros Hc Hbad. assert (Hnv : ~ valid_reader s0).
    { unfold valid_reader. rewrite Hc. cbn [fst snd]. tauto. }
    split; [exact Hnv|]. right. left. rsplit; auto. right. rewrite Hc. reflexivity.
  Qed.

  Lemma rfails_with_source s0 c e :
    cont s0 = (c, e) -> e <> EEof -> lenN c <= g_size cfg -> rfailure s0 e.
  Proof. intros Hc Hne Hl. right. right. rewrite Hc. auto. Qed.

  Lemma cont_from s0 out u d t :
    fst (cont s0) = out ++ fst (cont u) -> snd (cont s0) = snd (cont u) -> cont u = (d, t) ->
    cont s0 = (out ++ d, t).
  Proof.
    intros Hf Hs Hu. rewrite Hu in Hf, Hs. rewrite (surjective_pairing (cont s0)), Hf, Hs. reflexivity.
  Qed.

  Lemma vr_read_failed cap st : v_err st <> ENone -> vrd cap st = (([], v_err st), st).
  Proof. unfold vr_read. destruct (v_err st); congruence. Qed.

  Lemma vr_failed s0 (X : Prop) (stf : vst S) out e :
    rcb_ok s0 (v_cbs stf) -> v_err stf = e -> e <> ENone -> e <> EEof ->
    lenN out < g_size cfg \/ out = [] -> rfailure s0 e ->
    RInv s0 stf (out ++ []) /\ v_err stf = e /\ (e = ENone -> 0 < v_rem stf) /\
    (e <> ENone -> e <> EEof -> @nil N = []) /\
    (X -> e <> ENone -> e <> EEof -> rfailure s0 e).
  Proof.
    intros Hc He Hn1 Hn2 Hb Ho. rewrite app_nil_r. rsplit; auto; [|congruence].
    split; [exact Hc|]. rewrite He. destruct e; congruence || exact Hb.
  Qed.

  Lemma vr_read_step s0 st out cap data e st' :
    RInv s0 st out -> vrd cap st = ((data, e), st') ->
    RInv s0 st' (out ++ data) /\ v_err st' = e /\ (e = ENone -> 0 < v_rem st') /\
    (e <> ENone -> e <> EEof -> data = []) /\
    (v_err st = ENone -> e <> ENone -> e <> EEof -> rfailure s0 e).
  Proof.
    intros [Hc Hi] Hr. destruct (err_none_or (v_err st)) as [Herr|Hne].
    2:{ rewrite (vr_read_failed cap st Hne) in Hr. injection Hr as <- <- <-. rewrite app_nil_r.
        rsplit; auto; try congruence. split; assumption. }
    rewrite Herr in Hi. destruct Hi as (Hfst & Hsnd & <- & Hl & Hpos).
    assert (Hbound : lenN (v_acc st) < g_size cfg \/ v_acc st = []) by (destruct Hpos; [left; lia|right; assumption]).
    destruct (vr_read_full _ _ _ _ _ _ _ _ _ _ Hr Herr) as (He & r & ot & Hran & Hot).
    destruct ot as [t|]; cbn [rran] in Hran.
    - destruct (rdrains_cont _ _ _ _ Hran) as (Hcu & Hnu).
      pose proof (cont_from s0 _ _ _ _ Hfst Hsnd Hcu) as Hcont.
      destruct Hot as [(-> & [(-> & Hne & Hlen & Hcb)|[(Ht & -> & Hlen & Hbad & Hcb)|(-> & Hlong & Hcb)]])
                      |(-> & -> & Ht & Hlen & Hh & Hcb)]; cbn [app] in Hcont.
      + (* the reader's own error *)
        apply vr_failed; auto; [rewrite Hcb; exact Hc|exact (rdrains_failed _ _ _ _ _ _ Hran)|].
        apply (rfails_with_source s0 _ _ Hcont Hne). rewrite lenN_app. lia.
      + destruct Ht as [->| ->]; [|congruence]. destruct (rfails_at_eof s0 _ Hcont) as [Hnv Ho].
        { rewrite lenN_app. destruct Hbad; [left; lia|right; assumption]. }
        apply vr_failed; auto; try congruence. rewrite Hcb. apply rcb_ok_false; assumption.
      + destruct (rfails_too_long s0 (v_acc st ++ r) []) as [Hnv Ho]; [rewrite Hcont, app_nil_r; reflexivity|rewrite lenN_app; lia|].
        apply vr_failed; auto; try congruence. rewrite Hcb. apply rcb_ok_false; assumption.
      + destruct Ht as [->| ->]; [|congruence]. rewrite app_nil_r in Hcont.
        assert (Hlen' : lenN (v_acc st ++ data) = g_size cfg) by (rewrite lenN_app; lia).
        rsplit; auto; try congruence. split; [|rewrite He; auto].
        rewrite Hcb. apply rcb_ok_true; [exact Hc|]. unfold valid_reader. rewrite Hcont. auto.
    - pose proof (rpulls_cont _ _ _ Hran) as Hcu.
      destruct Hot as [(-> & -> & Ha & Hrem & Hpos' & Hcb)|(-> & [(-> & Hcb)|(-> & Hlong & Hcb)])].
      + rewrite app_nil_r in Hcu. rewrite Hcu in Hfst, Hsnd. cbn [fst snd] in Hfst, Hsnd.
        rsplit; auto; try congruence. split; [rewrite Hcb; exact Hc|]. rewrite He.
        rsplit; auto; [rewrite Hfst, app_assoc; reflexivity|rewrite lenN_app; lia].
      + apply vr_failed; auto; try congruence. left. reflexivity.
      + destruct (rfails_too_long s0 (v_acc st ++ r) (fst (cont (v_u st')))) as [Hnv Ho];
          [rewrite Hfst, Hcu; cbn [fst app]; rewrite app_assoc; reflexivity|rewrite lenN_app; lia|].
        apply vr_failed; auto; try congruence. rewrite Hcb. apply rcb_ok_false; assumption.
  Qed.

  Lemma vr_rpulls s0 st out bs st' :
    RInv s0 st out -> rpulls vrd st bs st' -> RInv s0 st' (out ++ bs).
  Proof.
    intros Hi Hp. revert out Hi. induction Hp as [st|cap st c st1 bs st2 Hr _ IH]; intros out Hi.
    - now rewrite app_nil_r.
    - rewrite app_assoc. apply IH. exact (proj1 (vr_read_step _ _ _ _ _ _ _ Hi Hr)).
  Qed.
  Lemma vr_rdrains s0 st out bs e st' :
    RInv s0 st out -> rdrains vrd st bs e st' -> RInv s0 st' (out ++ bs) /\ v_err st' = e.
  Proof.
    intros Hi Hd. revert out Hi. induction Hd as [cap st c e st1 Hr Hne|cap st c st1 bs e st2 Hr _ IH]; intros out Hi.
    - destruct (vr_read_step _ _ _ _ _ _ _ Hi Hr) as (Hi' & He & _). auto.
    - rewrite app_assoc. apply IH. exact (proj1 (vr_read_step _ _ _ _ _ _ _ Hi Hr)).
  Qed.

  (** a consumer holding [size] bytes (or more) of a non-empty blob: the stream is valid and that is it *)
  Lemma RInv_full s0 st out :
    RInv s0 st out -> g_size cfg <= lenN out -> 0 < g_size cfg ->
    cont s0 = (out, EEof) /\ lenN out = g_size cfg /\ g_hash cfg = H out.
  Proof.
    intros [_ Hi] Hl Hpos. destruct (v_err st).
    - destruct Hi as (_ & _ & _ & Hrem & [Hr| ->]); [lia|unfold lenN in Hl; cbn in Hl; lia].
    - exact Hi.
    - destruct Hi as [Hi| ->]; [lia|unfold lenN in Hl; cbn in Hl; lia].
    - destruct Hi as [Hi| ->]; [lia|unfold lenN in Hl; cbn in Hl; lia].
    - destruct Hi as [Hi| ->]; [lia|unfold lenN in Hl; cbn in Hl; lia].
  Qed.

  Theorem vr_complete_implies_valid u0 out st' :
    rdrains vrd (vinit cfg u0) out EEof st' ->
    cont u0 = (out, EEof) /\ lenN out = g_size cfg /\ g_hash cfg = H out.
  Proof.
    intros Hd. destruct (vr_rdrains _ _ _ _ _ _ (RInv_init u0) Hd) as [[_ Hi] He]. rewrite He in Hi. exact Hi.
  Qed.

  Theorem vr_withhold u0 out e st' :
    rpulls vrd (vinit cfg u0) out st' \/ rdrains vrd (vinit cfg u0) out e st' ->
    ~ valid_reader u0 -> lenN out < g_size cfg \/ out = [].
  Proof.
    intros Hp Hnv.
    assert (Hi : RInv u0 st' out).
    { destruct Hp as [Hp|Hp]; [exact (vr_rpulls _ _ _ _ _ (RInv_init u0) Hp)|exact (proj1 (vr_rdrains _ _ _ _ _ _ (RInv_init u0) Hp))]. }
    destruct Hi as [_ Hi]. destruct (v_err st'); try tauto.
    - destruct Hi as (_ & _ & _ & Hl & [Hpos|Hn]); [left; lia|right; assumption].
    - exfalso. apply Hnv. destruct Hi as (Hc & Hl & Hh). unfold valid_reader. rewrite Hc. auto.
  Qed.

  Theorem vr_callback_sound u0 out e st' :
    rpulls vrd (vinit cfg u0) out st' \/ rdrains vrd (vinit cfg u0) out e st' ->
    (In true (v_cbs st') -> valid_reader u0) /\ (In false (v_cbs st') -> ~ valid_reader u0).
  Proof.
    intros [Hp|Hp]; [exact (proj1 (vr_rpulls _ _ _ _ _ (RInv_init u0) Hp))|exact (proj1 (proj1 (vr_rdrains _ _ _ _ _ _ (RInv_init u0) Hp)))].
  Qed.

  Lemma vr_read_err cap st d e st' : vrd cap st = ((d, e), st') -> v_err st' = e.
  Proof.
    unfold vr_read. destruct (v_err st) eqn:Herr; try (intros Hr; inv Hr; assumption).
    destruct (vr_do_read H cfg rd fuel cap st) as [[d1 e1] st1]. intros Hr. inv Hr. reflexivity.
  Qed.

  Theorem vr_sticky st cap d e st' :
    vrd cap st = ((d, e), st') -> e <> ENone -> forall cap', vrd cap' st' = (([], e), st').
  Proof.
    intros Hr Hne cap'. rewrite vr_read_failed; rewrite (vr_read_err _ _ _ _ _ Hr); [reflexivity|exact Hne].
  Qed.

  Lemma vr_do_read_shape cap st c e st' :
    vr_do_read H cfg rd fuel cap st = ((c, e), st') ->
    let '((d, re), u1) := rd cap (v_u st) in
    let '((_, fe), u2) := read_full rd fuel 1 u1 in
    v_err st' = v_err st /\ (c = [] \/ c = d) /\ (e = ENone -> re = ENone) /\
    ((v_u st' = u1 /\ (e = re \/ e = ECode (g_code cfg) \/ e = EEof)) \/
     (re = ENone /\ v_u st' = u2 /\ ((e = fe /\ fe <> EUnexp) \/ e = ECode (g_code cfg) \/ e = EEof))).
  Proof.
    unfold vr_do_read, vr_compare, v_fail.
    destruct (rd cap (v_u st)) as [[d re] u1]. cbn [v_set_u v_rem v_u v_acc v_err v_cbs].
    destruct (read_full rd fuel 1 u1) as [[fin fe] u2]. intros Hr.
    destruct (v_rem st <? lenN d). { cbn beta iota zeta in Hr; injection Hr as <- <- <-. cbn [v_err v_u v_notify]. rsplit; auto; congruence. }
    destruct re; cbn [v_rem v_u v_acc] in Hr.
    - destruct (v_rem st - lenN d =? 0).
      + destruct fe;
          try (destruct (_ <? lenN fin); [|destruct (bytes_eqb _ _)]);
          cbn beta iota zeta in Hr; injection Hr as <- <- <-; cbn [v_err v_u v_notify]; rsplit; auto; try congruence;
          right; (rsplit; [reflexivity..|]);
          first [solve [auto]|left; split; [reflexivity|congruence]].
      + cbn beta iota zeta in Hr; injection Hr as <- <- <-. cbn [v_err v_u v_notify]. rsplit; auto.
    - destruct (negb _); [|destruct (bytes_eqb _ _)]; cbn beta iota zeta in Hr; injection Hr as <- <- <-; cbn [v_err v_u v_notify]; rsplit; auto; congruence.
    - cbn beta iota zeta in Hr; injection Hr as <- <- <-. cbn [v_err v_u v_notify]. rsplit; auto; congruence.
    - cbn beta iota zeta in Hr; injection Hr as <- <- <-. cbn [v_err v_u v_notify]. rsplit; auto; congruence.
    - cbn beta iota zeta in Hr; injection Hr as <- <- <-. cbn [v_err v_u v_notify]. rsplit; auto; congruence.
  Qed.

  (** ** io.CopyN(io.Discard), io.ReadFull and io.Copy around the validated reader *)
  Hypothesis rd_cap : forall cap s c e s', rd cap s = ((c, e), s') -> lenN c <= cap.

  Lemma vr_read_shape cap st d e st' :
    vrd cap st = ((d, e), st') -> v_err st <> EUnexp -> lenN d <= cap /\ e <> EUnexp.
  Proof.
    unfold vr_read. intros Hr Hnu.
    assert (Hnil : lenN [] <= cap) by (unfold lenN; cbn; lia).
    destruct (v_err st); try (inv Hr; split; [assumption|congruence]).
    destruct (vr_do_read H cfg rd fuel cap st) as [[d1 e1] st1] eqn:Hdo. inv Hr.
    pose proof (vr_do_read_shape _ _ _ _ _ Hdo) as Hsh.
    destruct (rd cap (v_u st)) as [[d0 re] u1] eqn:Hrd. destruct (read_full rd fuel 1 u1) as [[fin fe] u2].
    destruct Hsh as (_ & Hd & _ & He).
    pose proof (rd_cap _ _ _ _ _ Hrd) as Hc. pose proof (rd_no_unexp _ _ _ _ _ Hrd) as Hn.
    split; [destruct Hd as [-> | ->]; assumption|].
    destruct He as [(_ & [->|[->| ->]])|(_ & _ & [(-> & Hfe)|[->| ->]])]; congruence.
  Qed.

  Definition RInv2 (s0 : S) (st : vst S) (out : bytes) : Prop := RInv s0 st out /\ v_err st <> EUnexp.
  Lemma RInv2_init u0 : RInv2 u0 (vinit cfg u0) [].
  Proof. split; [apply RInv_init|cbn; congruence]. Qed.
  Lemma vr_step2 s0 st out cap d e st' :
    RInv2 s0 st out -> vrd cap st = ((d, e), st') ->
    RInv2 s0 st' (out ++ d) /\ v_err st' = e /\ lenN d <= cap /\ e <> EUnexp /\
    (e <> ENone -> e <> EEof -> d = []).
  Proof.
    intros [Hi Hn] Hr. destruct (vr_read_step _ _ _ _ _ _ _ Hi Hr) as (Hi' & He & _ & Hd & _).
    destruct (vr_read_shape _ _ _ _ _ Hr Hn) as (Hc & Hne). rsplit; auto. split; [exact Hi'|congruence].
  Qed.

  Lemma copy_n_vr s0 : forall f left st e st' pre,
    RInv2 s0 st pre -> copy_n_loop vrd f left st = (e, st') ->
    exists D, RInv2 s0 st' (pre ++ D) /\ (e = ENone -> lenN D = left) /\
              (e = EEof -> lenN D < left /\ v_err st' = EEof).
  Proof.
    induction f as [|f IH]; intros left st e st' pre Hi Hr; cbn [copy_n_loop] in Hr; destruct (left =? 0) eqn:E0;
      try (apply N.eqb_eq in E0; subst; inv Hr; exists []; rewrite app_nil_r; rsplit; auto; congruence).
    - inv Hr. exists []. rewrite app_nil_r. rsplit; auto; congruence.
    - apply N.eqb_neq in E0.
      destruct (vrd (N.min discard_buf left) st) as [[c e0] s1] eqn:Hv.
      destruct (vr_step2 _ _ _ _ _ _ _ Hi Hv) as (Hi1 & He1 & Hcap & Hnu & Hd).
      destruct e0; try congruence.
      + destruct (IH _ _ _ _ _ Hi1 Hr) as (D & HiD & Hok & Heof). exists (c ++ D). rewrite app_assoc.
        rsplit; auto.
        * intros He. rewrite lenN_app, (Hok He). lia.
        * intros He. destruct (Heof He) as (Hlt & Hv'). rewrite lenN_app. split; [lia|assumption].
      + destruct (left - lenN c =? 0) eqn:Ez; inv Hr; exists c; rsplit; auto; try congruence.
        all: intros _; first [apply N.eqb_eq in Ez; lia | apply N.eqb_neq in Ez; split; [lia|assumption]].
      + rewrite (Hd ltac:(congruence) ltac:(congruence)) in *. rewrite lenN_nil, N.sub_0_r in Hr.
        apply N.eqb_neq in E0. destruct (left =? 0) eqn:E1; [apply N.eqb_eq in E1; lia|].
        inv Hr. exists []. rsplit; auto; congruence.
      + rewrite (Hd ltac:(congruence) ltac:(congruence)) in *. rewrite lenN_nil, N.sub_0_r in Hr.
        apply N.eqb_neq in E0. destruct (left =? 0) eqn:E1; [apply N.eqb_eq in E1; lia|].
        inv Hr. exists []. rsplit; auto; congruence.
  Qed.

  Lemma read_full_vr2 s0 pre : forall f want got st res e st',
    RInv2 s0 st (pre ++ got) -> lenN got <= want ->
    read_full_loop vrd f want got st = ((res, e), st') ->
    RInv2 s0 st' (pre ++ res) /\ (e = ENone -> lenN res = want) /\
    (e = EEof \/ e = EUnexp -> v_err st' = EEof /\ lenN res < want).
  Proof.
    induction f as [|f IH]; intros want got st res e st' Hi Hg Hr; cbn [read_full_loop] in Hr;
      destruct (want <=? lenN got) eqn:Hw;
      try (apply N.leb_le in Hw; inv Hr; rsplit; auto; [intros _; lia|intros [?|?]; congruence]).
    - inv Hr. rsplit; auto; [congruence|intros [?|?]; congruence].
    - apply N.leb_gt in Hw.
      destruct (vrd (want - lenN got) st) as [[c e0] s1] eqn:Hv.
      destruct (vr_step2 _ _ _ _ _ _ _ Hi Hv) as (Hi1 & He1 & Hcap & Hnu & Hd). rewrite <- app_assoc in Hi1.
      assert (Hg1 : lenN (got ++ c) <= want) by (rewrite lenN_app; lia).
      destruct e0; try congruence.
      + eapply IH; eassumption.
      + destruct (want <=? lenN (got ++ c)) eqn:Hw2.
        * apply N.leb_le in Hw2. inv Hr. rsplit; auto; [intros _; lia|intros [?|?]; congruence].
        * apply N.leb_gt in Hw2. destruct (is_nil (got ++ c)); inv Hr; (rsplit; auto; congruence).
      + rewrite (Hd ltac:(congruence) ltac:(congruence)) in *. rewrite app_nil_r in *.
        replace (want <=? lenN got) with false in Hr by (symmetry; apply N.leb_gt; lia).
        inv Hr. rsplit; auto; [congruence|intros [?|?]; congruence].
      + rewrite (Hd ltac:(congruence) ltac:(congruence)) in *. rewrite app_nil_r in *.
        replace (want <=? lenN got) with false in Hr by (symmetry; apply N.leb_gt; lia).
        inv Hr. rsplit; auto; [congruence|intros [?|?]; congruence].
  Qed.

  Lemma copy_vr s0 cap : forall f w st w' e' st' pre,
    RInv2 s0 st pre -> copy_loop vrd f cap w st = ((w', e'), st') ->
    exists R, w' = w ++ R /\ RInv2 s0 st' (pre ++ R) /\ (e' = ENone -> v_err st' = EEof).
  Proof.
    induction f as [|f IH]; intros w st w' e' st' pre Hi Hr; cbn [copy_loop] in Hr.
    - inv Hr. exists []. rewrite !app_nil_r. rsplit; auto. congruence.
    - destruct (vrd cap st) as [[c e0] s1] eqn:Hv.
      destruct (vr_step2 _ _ _ _ _ _ _ Hi Hv) as (Hi1 & He1 & _ & _ & _).
      destruct e0; try (inv Hr; exists c; rsplit; auto; congruence).
      destruct (IH _ _ _ _ _ _ Hi1 Hr) as (R & -> & HiR & He). exists (c ++ R). rewrite !app_assoc. rsplit; auto.
  Qed.

  Lemma RInv2_eof s0 st out :
    RInv2 s0 st out -> v_err st = EEof -> cont s0 = (out, EEof) /\ lenN out = g_size cfg /\ g_hash cfg = H out.
  Proof. intros [[_ Hi] _] He. rewrite He in Hi. exact Hi. Qed.
End VrProofs.
Arguments valid_reader H cfg {S}.
