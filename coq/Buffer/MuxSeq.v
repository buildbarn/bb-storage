(** C15, model M1: the "same sequence" theorem with the exact position of
    every consumer.

    A second invariant of the multiplexer LTS, independent of [MuxProofs.Inv]:
    the quantity  reads still to issue + results received (+ 1 while parked
    in Read)  of every consumer never changes, and a consumer that has closed
    has no reads left.  Together with [Inv] (every consumer holds a prefix of
    the source output) this pins the exact position of every consumer in the
    shared log: in every reachable state a consumer with program Read^k has
    completed exactly  k - reads - [parked]  Reads and their results are the
    first that many results of the underlying source.  Both invariants also
    hold along [run_skip], the execution that skips steps that are not
    enabled. *)
From Coq Require Import List ZArith NArith Bool Arith Lia.
From BBS Require Import Buffer.Mux Buffer.MuxProofs.
Import ListNotations.

(** Number of Read calls a program issues. *)
Definition prog_reads (p : nat * bool * N) : nat :=
  let '(r, d, _) := p in if d then 0 else r.

(** Read calls of consumer [c] that have returned, given that its program
    issues [k]: those not yet issued and the one it is parked in do not count. *)
Definition completed (k : nat) (c : cons) : nat :=
  k - reads c - b2n (is_st CWaitRead c).

Lemma map_eq_pointwise {A B C} (f : A -> C) (g : B -> C) :
  forall (l1 : list A) (l2 : list B), length l1 = length l2 ->
  (forall i a b, nth_error l1 i = Some a -> nth_error l2 i = Some b -> f a = g b) ->
  map f l1 = map g l2.
Proof.
  induction l1 as [|a l1 IH]; intros [|b l2] Hl H; cbn in Hl; try discriminate; [reflexivity|].
  cbn. f_equal.
  - apply (H 0); reflexivity.
  - apply IH; [lia|]. intros i a' b' Ha Hb. apply (H (S i)); assumption.
Qed.

Section S.
  Variable nchunks : nat.
  Variable term : Z.
  Notation items := (items nchunks term).
  Notation item_at := (item_at nchunks term).
  Notation step := (step nchunks term).
  Notation run := (run nchunks term).
  Notation run_skip := (run_skip nchunks term).

  (** the conserved quantity *)
  Definition total (c : cons) : nat := reads c + length (got c) + b2n (is_st CWaitRead c).
  Definition done_ok (c : cons) : Prop := st c = CDone -> reads c = 0.

  Definition Seq (tot : list nat) (s : mst) : Prop :=
    map total (cs s) = tot /\ Forall done_ok (cs s).

  Lemma Forall_map_pres {A} (P : A -> Prop) (f : A -> A) (l : list A) :
    (forall c, P c -> P (f c)) -> Forall P l -> Forall P (map f l).
  Proof. intros Hf Hl. induction Hl; cbn; constructor; auto. Qed.

  Lemma total_wake_reg l : map total (wake_reg l) = map total l.
  Proof.
    unfold wake_reg. rewrite map_map. apply map_ext. intros c.
    unfold is_st at 1. destruct (st c) eqn:E; try reflexivity.
    unfold total, is_st. cbn. rewrite E. reflexivity.
  Qed.

  Lemma total_wake_read it l : map total (wake_read it l) = map total l.
  Proof.
    unfold wake_read. rewrite map_map. apply map_ext. intros c.
    unfold is_st at 1. destruct (st c) eqn:E; try reflexivity.
    unfold total, is_st. cbn. rewrite E, app_length. cbn. lia.
  Qed.

  Lemma done_wake_reg l : Forall done_ok l -> Forall done_ok (wake_reg l).
  Proof.
    apply Forall_map_pres. intros c Hc. destruct (is_st CWaitReg c); [|exact Hc].
    unfold done_ok. cbn. discriminate.
  Qed.

  Lemma done_wake_read it l : Forall done_ok l -> Forall done_ok (wake_read it l).
  Proof.
    apply Forall_map_pres. intros c Hc. destruct (is_st CWaitRead c); [|exact Hc].
    unfold done_ok. cbn. discriminate.
  Qed.

  Lemma woken_seq it tot l l' : woken it l l' -> map total l = tot /\ Forall done_ok l ->
    map total l' = tot /\ Forall done_ok l'.
  Proof.
    intros [-> | [-> | ->]] [Ht Hd]; [split; assumption|..].
    - split; [rewrite total_wake_reg; exact Ht|apply done_wake_reg; exact Hd].
    - split; [rewrite total_wake_read; exact Ht|apply done_wake_read; exact Hd].
  Qed.

  Lemma moves_seq it c c' : moves it c c' -> total c' = total c /\ done_ok c'.
  Proof.
    unfold total, done_ok, is_st.
    intros [s1 Hst [-> | ->]|Hst Hr|k Hst Hr|k Hst Hr]; cbn [st reads got set_st]; rewrite Hst, ?Hr, ?app_length;
      cbn [b2n length]; (split; [lia|]); try discriminate.
    reflexivity.
  Qed.

  Lemma step_seq tot s i s' : Seq tot s -> step s i = Some s' -> Seq tot s'.
  Proof.
    intros HS Hs. unfold Seq.
    destruct (step_cs _ _ _ _ _ Hs) as [[_ E]|(c & c' & l & Hn & Hm & Hl & E)]; rewrite E; [exact HS|].
    destruct (woken_seq _ _ _ _ Hl HS) as [Ht Hd]. destruct (moves_seq _ _ _ Hm) as [Et Hd'].
    split; [|apply Forall_forall, all_upd; [exact Hd'|apply Forall_forall; exact Hd]].
    (* the list of totals is updated with the value it holds already *)
    rewrite map_upd, Et, Ht. apply upd_same. rewrite <- Ht.
    apply map_nth_error, (woken_nth _ _ _ _ _ _ Hl Hm Hn).
  Qed.

  Lemma run_seq tot sched : forall s s', Seq tot s -> run s sched = Some s' -> Seq tot s'.
  Proof.
    induction sched as [|i rest IH]; intros s s' HI H; cbn in H.
    - inversion H; subst; exact HI.
    - destruct (step s i) as [s1|] eqn:E; [|discriminate]. eapply IH; [|exact H]. eapply step_seq; eassumption.
  Qed.

  Lemma init_seq progs : Seq (map prog_reads progs) (init progs).
  Proof.
    unfold Seq, init. cbn [cs]. split.
    - rewrite map_map. apply map_ext. intros [[r d] z]. unfold total, is_st. cbn. lia.
    - apply Forall_forall. intros c Hin. apply in_map_iff in Hin.
      destruct Hin as ([[r d] z] & <- & _). unfold done_ok. cbn. discriminate.
  Qed.

  Lemma items_length k : length (items k) = k.
  Proof. unfold Mux.items. rewrite map_length, seq_length. reflexivity. Qed.

  Lemma items_nth k j : j < k -> nth_error (items k) j = Some (item_at j).
  Proof.
    intros H. unfold Mux.items. rewrite nth_error_map.
    rewrite (nth_error_nth' (seq 0 k) 0) by (rewrite seq_length; exact H).
    rewrite seq_nth by exact H. reflexivity.
  Qed.

  (** The position of every consumer in the shared log, in any state that
      satisfies both invariants. *)
  Theorem position s progs i c p : Inv nchunks term s -> Seq (map prog_reads progs) s ->
    nth_error (cs s) i = Some c -> nth_error progs i = Some p ->
    let k := prog_reads p in
    reads c + b2n (is_st CWaitRead c) <= k /\
    got c = items (completed k c) /\
    completed k c <= srcpos s /\
    (st c <> CDone -> completed k c = srcpos s) /\
    (st c = CDone -> got c = items k).
  Proof.
    intros HI [Ht Hd] Hn Hp k.
    assert (Hin : In c (cs s)) by (eapply nth_error_In; exact Hn).
    assert (Htot : total c = k).
    { pose proof (map_nth_error total _ _ Hn) as H1. rewrite Ht in H1.
      rewrite (map_nth_error prog_reads _ _ Hp) in H1. inversion H1. reflexivity. }
    destruct (same_sequence nchunks term s c HI Hin) as [(k' & Hk' & Hg) Hnd].
    assert (Hlen : length (got c) = k') by (rewrite Hg; apply items_length).
    assert (Hcomp : completed k c = k') by (unfold completed; unfold total in Htot; lia).
    rewrite Hcomp. repeat split.
    - unfold total in Htot. lia.
    - exact Hg.
    - exact Hk'.
    - intros Hs. specialize (Hnd Hs). rewrite Hnd, items_length in Hlen. lia.
    - intros Hs. rewrite Forall_forall in Hd. pose proof (Hd c Hin Hs) as Hr.
      unfold completed in Hcomp. unfold is_st in Hcomp. rewrite Hs in Hcomp. cbn in Hcomp.
      rewrite Hg. f_equal. lia.
  Qed.

  Lemma seq_length_cs s progs : Seq (map prog_reads progs) s -> length (cs s) = length progs.
  Proof. intros [Ht _]. rewrite <- (map_length total), Ht, map_length. reflexivity. Qed.

  (** For any number n >= 1 of consumers, any programs, any
      source script and any schedule, in every reachable state every consumer
      has completed exactly [completed k c] of its k Reads and their results
      are, in order, the first results the underlying source produced. *)
  Theorem same_sequence_full progs sched s :
    progs <> [] -> run (init progs) sched = Some s ->
    length (cs s) = length progs /\
    forall i c p, nth_error (cs s) i = Some c -> nth_error progs i = Some p ->
      let k := prog_reads p in
      reads c + b2n (is_st CWaitRead c) <= k /\
      got c = items (completed k c) /\
      completed k c <= srcpos s /\
      (st c <> CDone -> completed k c = srcpos s) /\
      (st c = CDone -> got c = items k).
  Proof.
    intros Hne Hr.
    pose proof (run_inv nchunks term sched _ _ (init_inv nchunks term progs Hne) Hr) as HI.
    pose proof (run_seq _ sched _ _ (init_seq progs) Hr) as HS.
    split; [apply seq_length_cs; exact HS|].
    intros i c p Hn Hp. exact (position s progs i c p HI HS Hn Hp).
  Qed.

  (** The same, result by result: the j-th Read result of every consumer is
      the j-th result the source produced (a chunk, the error, or EOF), for
      every j below the number of Reads it has completed, and it holds no
      other results. *)
  Theorem same_sequence_pointwise progs sched s i c p :
    progs <> [] -> run (init progs) sched = Some s ->
    nth_error (cs s) i = Some c -> nth_error progs i = Some p ->
    length (got c) = completed (prog_reads p) c /\
    completed (prog_reads p) c <= srcpos s /\
    forall j, j < completed (prog_reads p) c -> nth_error (got c) j = Some (item_at j).
  Proof.
    intros Hne Hr Hn Hp.
    destruct (same_sequence_full progs sched s Hne Hr) as [_ H].
    destruct (H i c p Hn Hp) as (_ & Hg & Hle & _).
    split; [rewrite Hg at 1; apply items_length|]. split; [exact Hle|].
    intros j Hj. rewrite Hg. apply items_nth. exact Hj.
  Qed.

  (** When everybody has finished (the only maximal runs, by [no_stuck] and
      the ranking), consumer i holds exactly the first k_i source results. *)
  Theorem final_results progs sched s :
    progs <> [] -> run (init progs) sched = Some s -> all_done s = true ->
    map got (cs s) = map (fun p => items (prog_reads p)) progs.
  Proof.
    intros Hne Hr Hd. destruct (same_sequence_full progs sched s Hne Hr) as [Hl H].
    apply map_eq_pointwise; [exact Hl|]. intros i c p Hc Hp.
    destruct (H i c p Hc Hp) as (_ & _ & _ & _ & Hdone). apply Hdone.
    exact (all_done_st s c Hd (nth_error_In _ _ Hc)).
  Qed.

  Lemma run_skip_pres (P : mst -> Prop) :
    (forall s i s', P s -> step s i = Some s' -> P s') ->
    forall sched s, P s -> P (run_skip s sched).
  Proof.
    intros Hstep. induction sched as [|i rest IH]; intros s Hs; cbn; [exact Hs|].
    apply IH. destruct (step s i) eqn:E; [eapply Hstep; eassumption|exact Hs].
  Qed.

  Lemma run_skip_inv sched s : Inv nchunks term s -> Inv nchunks term (run_skip s sched).
  Proof. apply run_skip_pres. intros s0 i s' H E. eapply step_inv; eassumption. Qed.

  Lemma run_skip_seq tot sched s : Seq tot s -> Seq tot (run_skip s sched).
  Proof. apply run_skip_pres. intros s0 i s' H E. eapply step_seq; eassumption. Qed.
End S.
