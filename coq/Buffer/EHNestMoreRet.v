(** C16N — monitor clause 2 on the model: when the last answer the OUTERMOST
    handler gave was an error, that error is the consumer's result.

    Method: a reader is TRACKED when every error it returns leaves it stuck
    with that error (it returns it again and does not change).  The validating
    readers are tracked (sticky error) and keep the invariant "if the root
    handler's last answer was the error x, the sticky error is x"; the offset
    reader, drain, the further reads and Close() keep both.

    For ToReader the statement is weaker, and necessarily so
    ([clause2_fires_on_the_model], Buffer/EHNestMoreMon.v): the casValidatingReader
    looks at the size of the data BEFORE the error that came with it, and
    io.ReadFull drops an error that comes with the byte it wanted, so data
    handed over together with the handler's error can turn the result into the
    validator's own error code. *)
From Coq Require Import List ZArith NArith Bool Lia.
From BBS Require Import Buffer.Source Buffer.Validate Buffer.Convert Buffer.StreamProofs
  Buffer.ValidateProofs Buffer.ValidateReaderProofs Buffer.EHNest Buffer.EHNestStep Buffer.PreserveProofs Run.R16N.
Import ListNotations.
Open Scope N_scope.

(** * The script of a handler against the number of offers it has received *)
Inductive Al : nanss -> nat -> nanss -> Prop :=
| Al_nil ans : Al ans O ans
| Al_rep t r n rem : Al r n rem -> Al (ARep t r) (S n) rem.

Lemma Al_snoc ans n t r : Al ans n (ARep t r) -> Al ans (S n) r.
Proof.
  intros Ha. remember (ARep t r) as rem eqn:Er. revert Er.
  induction Ha as [ans|t0 r0 n rem Ha IH]; intros ->.
  - constructor. constructor.
  - constructor. apply IH. reflexivity.
Qed.
Lemma Al_ret_none ans n rem : Al ans n rem -> returnedN ans n = None.
Proof.
  induction 1 as [ans|t r n rem Ha IH]; [reflexivity|].
  destruct n as [|n]; [reflexivity|]. exact IH.
Qed.
Lemma Al_ret_said ans n rem c rest : Al ans n rem -> said rem c rest -> returnedN ans (S n) = Some c.
Proof. induction 1 as [ans|t r n rem Ha IH]; intros Hs; [destruct Hs; reflexivity|exact (IH Hs)]. Qed.

Section Tracked.
  Context {S : Type}.
  Variable stuck : err -> S -> Prop.

  Definition tlaw (rd : S -> (bytes * err) * S) (J : S -> Prop) : Prop :=
    forall s c e s', J s -> rd s = ((c, e), s') ->
      J s' /\ (e <> ENone -> stuck e s') /\ (forall e0, stuck e0 s -> s' = s /\ e = e0).
  Definition rtlaw (rd : N -> S -> (bytes * err) * S) (J : S -> Prop) : Prop :=
    forall cap s c e s', J s -> rd cap s = ((c, e), s') ->
      J s' /\ (e <> ENone -> stuck e s') /\ (forall e0, stuck e0 s -> s' = s /\ e = e0).

  Lemma drain_tracked rd J : tlaw rd J -> forall f out s o e s',
    J s -> drain rd f out s = ((o, e), s') -> J s' /\ (e = EFuel \/ stuck e s').
  Proof.
    intros T. induction f as [|f IH]; intros out s o e s' Hj Hd; cbn [drain] in Hd.
    - inj Hd. auto.
    - destruct (rd s) as [[c e1] s1] eqn:Hr. destruct (T _ _ _ _ Hj Hr) as (A & B & _).
      destruct e1; try (inj Hd; split; [exact A|right; apply B; congruence]).
      eapply IH; eassumption.
  Qed.
  Lemma extra_reads_stuck rd J : tlaw rd J -> forall k s ex s' e0,
    J s -> stuck e0 s -> extra_reads rd k s = (ex, s') -> s' = s.
  Proof.
    intros T. induction k as [|k IH]; intros s ex s' e0 Hj Hs He; cbn [extra_reads] in He; [inj He; reflexivity|].
    destruct (rd s) as [[c e] s1] eqn:Hr. destruct (extra_reads rd k s1) as [l s2] eqn:He2. inj He.
    destruct (T _ _ _ _ Hj Hr) as (_ & _ & C). destruct (C _ Hs) as (-> & _). eapply IH; eassumption.
  Qed.
  Lemma rconsume_tracked rd J : rtlaw rd J -> forall f caps lc out s o e s',
    J s -> rconsume rd f caps lc out s = ((o, e), s') -> J s' /\ (e = EFuel \/ stuck e s').
  Proof.
    intros T. induction f as [|f IH]; intros caps lc out s o e s' Hj Hd; cbn [rconsume] in Hd.
    - inj Hd. auto.
    - destruct (rd (hd lc caps) s) as [[c e1] s1] eqn:Hr. destruct (T _ _ _ _ _ Hj Hr) as (A & B & _).
      destruct e1; try (inj Hd; split; [exact A|right; apply B; congruence]).
      eapply IH; eassumption.
  Qed.
  Lemma rextra_stuck rd J : rtlaw rd J -> forall k cap s ex s' e0,
    J s -> stuck e0 s -> rextra rd k cap s = (ex, s') -> s' = s.
  Proof.
    intros T. induction k as [|k IH]; intros cap s ex s' e0 Hj Hs He; cbn [rextra] in He; [inj He; reflexivity|].
    destruct (rd cap s) as [[c e] s1] eqn:Hr. destruct (rextra rd k cap s1) as [l s2] eqn:He2. inj He.
    destruct (T _ _ _ _ _ Hj Hr) as (_ & _ & C). destruct (C _ Hs) as (-> & _). eapply IH; eassumption.
  Qed.

  Variable rd : S -> (bytes * err) * S.
  Variable cl : S -> S.
  Variable J : S -> Prop.
  Hypothesis T : tlaw rd J.
  Hypothesis Jcl : forall s, J s -> J (cl s).
  Hypothesis stuck_cl : forall e s, stuck e s -> stuck e (cl s).

  Definition stuck_o (e : err) (o : ost S) : Prop :=
    (o_fixed o = e /\ e <> ENone /\ (e <> EFuel -> stuck e (o_u o))) \/
    (o_fixed o = ENone /\ o_prefix o = [] /\ stuck e (o_u o)).
  Definition J_o (o : ost S) : Prop :=
    J (o_u o) /\ (o_fixed o <> ENone -> (o_fixed o <> EFuel -> stuck (o_fixed o) (o_u o)) /\ o_prefix o = []).

  Lemma discard_tracked : forall f off s p e s', J s ->
    discard_from_chunk_reader rd f off s = ((p, e), s') -> J s' /\ (e <> ENone -> e <> EFuel -> stuck e s').
  Proof.
    induction f as [|f IH]; intros off s p e s' Hj Hd; cbn [discard_from_chunk_reader] in Hd.
    - destruct (off =? 0); inj Hd; split; auto; congruence.
    - destruct (off =? 0). { inj Hd. split; auto; congruence. }
      destruct (rd s) as [[c e1] s1] eqn:Hr. destruct (T _ _ _ _ Hj Hr) as (A & B & _).
      destruct e1; try (inj Hd; split; [exact A|intros; apply B; congruence]).
      destruct (off <? lenN c); [inj Hd; split; auto; congruence|]. eapply IH; eassumption.
  Qed.

  Lemma offset_init_tracked f off s : (0 <= off)%Z -> J s -> J_o (offset_init rd cl f off s).
  Proof.
    intros Hoff Hj. unfold offset_init. destruct (off <? 0)%Z eqn:E; [apply Z.ltb_lt in E; lia|].
    destruct (discard_from_chunk_reader rd f (Z.to_N off) s) as [[p e] s'] eqn:Hd.
    destruct (discard_tracked _ _ _ _ _ _ Hj Hd) as (A & B).
    destruct e; unfold J_o; cbn [o_u o_fixed o_prefix]; (split; [auto|]); try congruence;
      intros _; (split; [|reflexivity]); intros Hnf; apply stuck_cl, B; congruence.
  Qed.

  Lemma offset_read_tracked : forall o c e o', J_o o -> offset_read rd o = ((c, e), o') ->
    J_o o' /\ (e <> ENone -> stuck_o e o') /\ (forall e0, stuck_o e0 o -> o' = o /\ e = e0).
  Proof.
    intros o c e o' (Hj & Hf) Hr. unfold offset_read in Hr.
    destruct (err_none_or (o_fixed o)) as [Ef|Hne].
    2:{ (* a fixed error is returned again and nothing changes *)
        assert (Hs : e = o_fixed o /\ o' = o) by (destruct (o_fixed o); try congruence; inj Hr; auto).
        destruct Hs as (-> & ->). destruct (Hf Hne) as (X & Y). split; [split; auto|]. split.
        - intros _. left. rsplit; auto.
        - intros e0 [(A & _)|(A & _)]; [auto|congruence]. }
    rewrite Ef in Hr. destruct (is_nil (o_prefix o)) eqn:En.
      - destruct (rd (o_u o)) as [[c1 e1] u'] eqn:Hr1. inj Hr.
        destruct (T _ _ _ _ Hj Hr1) as (A & B & C).
        split; [split; cbn [o_u o_fixed o_prefix]; [exact A|congruence]|]. split.
        + intros Hne. right. cbn [o_u o_fixed o_prefix]. auto.
        + intros e0 [(X & Y & _)|(_ & Hp & Hs)]; [rewrite Ef in X; congruence|].
          destruct (C _ Hs) as (-> & ->). split; [|reflexivity].
          destruct o as [u p fx]. cbn in *. subst. reflexivity.
      - inj Hr. split; [split; cbn [o_u o_fixed o_prefix]; [exact Hj|congruence]|]. split; [congruence|].
        intros e0 [(X & Y & _)|(_ & Hp & _)]; [rewrite Ef in X; congruence|].
        rewrite Hp in En. discriminate.
  Qed.

  Lemma offset_close_tracked o e : J_o o -> stuck_o e o -> e <> EFuel ->
    J (o_u (offset_close cl o)) /\ stuck e (o_u (offset_close cl o)).
  Proof.
    intros (Hj & Hf) Hs Hne. unfold offset_close.
    destruct Hs as [(X & Y & Z)|(X & _ & Z)].
    - rewrite X. destruct e; try congruence; cbn [o_u]; auto.
    - rewrite X. cbn [o_u]. auto.
  Qed.
End Tracked.

(** * The validating readers over a reader whose errors say what the root
    handler returned *)
Section ValidatorTracked.
  Variable H : bytes -> bytes.
  Variable cfg : vcfg.
  Context {S : Type}.
  Variable ret : S -> option Z.
  Variable P0 : S -> Prop.
  Hypothesis P0_ret : forall s, P0 s -> ret s = None.

  Definition told (e : err) (s : S) : Prop :=
    match e with ECode x => ret s = Some x | EUnexp => False | _ => P0 s end.
  Definition vstuck (e : err) (st : vst S) : Prop := v_err st = e /\ e <> ENone.

  Lemma told_W e s x : told e s -> ret s = Some x -> e = ECode x.
  Proof.
    destruct e; cbn [told]; intros Ht Hr; try (rewrite (P0_ret _ Ht) in Hr; discriminate); try contradiction.
    rewrite Ht in Hr. inj Hr. reflexivity.
  Qed.

  (** ** casValidatingChunkReader: the root's error is the sticky error *)
  Section Chunk.
    Variable rd : S -> (bytes * err) * S.
    Hypothesis rd_told : forall s c e s', P0 s -> rd s = ((c, e), s') -> told e s'.

    Definition Jvc (st : vst S) : Prop :=
      (v_err st = ENone -> P0 (v_u st)) /\ (forall x, ret (v_u st) = Some x -> v_err st = ECode x).

    Lemma vcr_read_tlaw f (J : vst S -> Prop) :
      (forall st c e st', J st -> vcr_read H cfg rd f st = ((c, e), st') -> J st') ->
      tlaw vstuck (vcr_read H cfg rd f) J.
    Proof.
      intros HJ st c e st' Hj Hr. split; [exact (HJ _ _ _ _ Hj Hr)|].
      destruct (err_none_or (v_err st)) as [Eerr|Hne].
      - destruct (vcr_read_did _ _ _ _ _ _ _ _ _ Hr Eerr) as (He & _).
        split; [intros Hn; split; [exact (proj2 (He Hn))|exact Hn]|]. intros e0 (X & Y). congruence.
      - rewrite (vcr_read_failed H cfg S rd f st Hne) in Hr. inj Hr.
        split; [intros _; split; [reflexivity|exact Hne]|]. intros e0 (X & _). auto.
    Qed.

    Lemma vcr_read_Jvc f st c e st' : Jvc st -> vcr_read H cfg rd f st = ((c, e), st') -> Jvc st'.
    Proof.
      intros (Hj0 & Hjr) Hr. destruct (err_none_or (v_err st)) as [Eerr|Hne].
      2:{ rewrite (vcr_read_failed H cfg S rd f st Hne) in Hr. inj Hr. split; assumption. }
      destruct (vcr_read_did _ _ _ _ _ _ _ _ _ Hr Eerr) as (_ & _ & r & ot & Hran & Hot).
      pose proof (ran_after _ rd P0 told rd_told (fun s p => p) _ _ _ _ Hran (Hj0 Eerr)) as Ha.
      destruct ot as [t|].
      - (* the stream underneath ended with [t]: that, or a validation failure at io.EOF, sticks *)
        destruct Ha as (Hn & Ht). destruct Hot as (Hv & _). split.
        + intros E. rewrite E in Hv. destruct Hv as [?|(_ & ?)]; congruence.
        + intros x Hx. rewrite (told_W _ _ _ Ht Hx) in Hv. destruct Hv as [Hv|(? & _)]; [exact Hv|discriminate].
      - split; [intros _; exact Ha|]. intros x Hx. rewrite (P0_ret _ Ha) in Hx. discriminate.
    Qed.

    Lemma vcr_read_tracked f : tlaw vstuck (vcr_read H cfg rd f) Jvc.
    Proof. apply vcr_read_tlaw. intros st c e st'. apply vcr_read_Jvc. Qed.
  End Chunk.

  (** ** casValidatingReader: ... or the validator's own error code *)
  Section Reader.
    Variable rd : N -> S -> (bytes * err) * S.
    Hypothesis rd_told : forall cap s c e s', P0 s -> rd cap s = ((c, e), s') -> told e s'.

    (** [Ex st]: what else is known of the validator while no error is stuck; [big]: what follows
        once it has been handed more bytes than it expects.  The validator answers with its own
        code instead of the root's error only in that situation. *)
    Variable Ex : vst S -> Prop.
    Variable big : Prop.
    Hypothesis ex_long : forall st bs ot u', Ex st -> rran S rd (v_u st) bs ot u' -> v_rem st < lenN bs -> big.
    Hypothesis ex_more : forall st c st',
      Ex st -> rran S rd (v_u st) c None (v_u st') -> v_rem st' + lenN c = v_rem st -> Ex st'.

    Definition okr (x : Z) (e : err) : Prop := e = ECode x \/ (e = ECode (g_code cfg) /\ big).
    Definition Jvr (st : vst S) : Prop :=
      (v_err st = ENone -> P0 (v_u st) /\ Ex st) /\ (forall x, ret (v_u st) = Some x -> okr x (v_err st)).

    Lemma vr_read_rtlaw f (J : vst S -> Prop) :
      (forall cap st c e st', J st -> vr_read H cfg rd f cap st = ((c, e), st') -> J st') ->
      rtlaw vstuck (vr_read H cfg rd f) J.
    Proof.
      intros HJ cap st c e st' Hj Hr. split; [exact (HJ _ _ _ _ _ Hj Hr)|].
      destruct (err_none_or (v_err st)) as [Eerr|Hne].
      - destruct (vr_read_did _ _ _ _ _ _ _ _ _ _ Hr Eerr) as (He & _).
        split; [intros Hn; split; assumption|]. intros e0 (X & Y). congruence.
      - rewrite (vr_read_failed H cfg S rd f cap st Hne) in Hr. inj Hr.
        split; [intros _; split; [reflexivity|exact Hne]|]. intros e0 (X & _). auto.
    Qed.

    Lemma vr_read_Jvr f cap st c e st' : Jvr st -> vr_read H cfg rd f cap st = ((c, e), st') -> Jvr st'.
    Proof.
      intros (Hj0 & Hjr) Hr. destruct (err_none_or (v_err st)) as [Eerr|Hne].
      2:{ rewrite (vr_read_failed H cfg S rd f cap st Hne) in Hr. inj Hr. split; assumption. }
      destruct (Hj0 Eerr) as (Hp & Hex). clear Hj0 Hjr.
      destruct (vr_read_did _ _ _ _ _ _ _ _ _ _ Hr Eerr) as (He & r & ot & Hran & Hot).
      pose proof (rran_after _ rd P0 told rd_told (fun s p => p) _ _ _ _ Hran Hp) as Ha.
      unfold Jvr. rewrite He. destruct ot as [t|].
      - (* the stream underneath ended with [t]; a root handler that said [x] did not pass on io.EOF *)
        destruct Ha as (Hn & Ht). split.
        + intros ->. destruct Hot as [(_ & [(<- & _)|[(_ & ?)|(? & _)]])|(? & _)]; congruence.
        + intros x Hx. pose proof (told_W _ _ _ Ht Hx) as ->.
          destruct Hot as [(-> & [(-> & _)|[([?|?] & _)|(-> & Hl)]])|(_ & _ & [?|?] & _)]; try discriminate.
          * left. reflexivity.
          * right. split; [reflexivity|exact (ex_long _ _ _ _ Hex Hran Hl)].
      - split; [|intros x Hx; rewrite (P0_ret _ Ha) in Hx; discriminate].
        intros ->. destruct Hot as [(_ & -> & _ & Hrem & _)|(_ & [?|(? & _)])]; try discriminate.
        rewrite app_nil_r in Hran. split; [exact Ha|exact (ex_more _ _ _ Hex Hran Hrem)].
    Qed.

    Lemma vr_read_tracked f : rtlaw vstuck (vr_read H cfg rd f) Jvr.
    Proof. apply vr_read_rtlaw. intros cap st c e st'. apply vr_read_Jvr. Qed.
  End Reader.
End ValidatorTracked.
