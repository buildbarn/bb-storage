(** C15, model M2: background tasks — exactly when the task's error is
    reported, and completion never before the task, for every method, every
    node and every program of any depth. *)
From Coq Require Import List ZArith NArith Bool Lia.
From BBS Require Import Buffer.Algebra Buffer.AlgebraProofs.
Import ListNotations.
Open Scope Z_scope.

(** Trivially cloneable kinds: WithTask runs the task in the foreground. *)
Definition is_plain (n : node) : bool :=
  match n with NBytes | NProto | NReaderAt => true | _ => false end.

(** Ok or ReadAt's (n, io.EOF). *)
Definition success (r : res) : Prop :=
  match r with Ok _ | Eof _ => True | _ => False end.

Section T.
  Variable D : list Z.
  Variable flt : fault.
  Notation eval := (eval D flt).
  Notation wf := (wf D).

  (** For EVERY node (well-formed or not) and every completing method: a
      trivially cloneable buffer is replaced by the task's error; any other
      buffer reports its own result unless that is [Ok], which becomes the
      task's error. *)
  Theorem withTask_exact n id terr m : terr <> 0 -> completing m ->
    eval (withTask id terr n) m =
      if is_plain n then Err terr
      else match eval n m with Ok _ => Err terr | r => r end.
  Proof.
    intros Ht Hc. apply Z.eqb_neq in Ht. rewrite (eval_withTask D flt n id terr m Hc), Ht.
    destruct n; cbn [is_plain]; try reflexivity. rewrite (eval_NErr D flt c m Hc). reflexivity.
  Qed.

  Theorem withTask_ok_exact n id m : completing m ->
    eval (withTask id 0 n) m = eval n m.
  Proof.
    intros Hc. rewrite (eval_withTask D flt n id 0 m Hc). cbn [Z.eqb].
    destruct n; try reflexivity; destruct (eval _ m); reflexivity.
  Qed.

  Lemma readat_pure_cases len off :
    (exists b, readat_pure D len off = Ok b) \/ (exists b, readat_pure D len off = Eof b).
  Proof. unfold readat_pure. destruct (Nat.ltb _ _); [right|left]; eexists; reflexivity. Qed.

  (** [Eof] is produced by ReadAt only. *)
  Lemma eof_only_readat n m b : eval n m = Eof b -> exists len off, m = MReadAt len off.
  Proof.
    intros E. pose proof (proj1 (eval_outcome D flt n) m) as H. rewrite E in H. cbn in H.
    destruct m; try discriminate H. eauto.
  Qed.

  (** The one exception: the data is fine, the method is ReadAt, the buffer is
      not trivially cloneable and the read hits end-of-file. *)
  Definition eof_exception (n : node) (m : meth) : Prop :=
    is_plain n = false /\ exists b, eval n m = Eof b.

  (** "Reports the task's error if the data itself was fine", with the
      exception explicit: *)
  Theorem task_error_reported_unless_eof n id terr m :
    terr <> 0 -> completing m -> success (eval n m) -> ~ eof_exception n m ->
    eval (withTask id terr n) m = Err terr.
  Proof.
    intros Ht Hc Hs Hx. rewrite (withTask_exact n id terr m Ht Hc).
    destruct (is_plain n) eqn:Ep; [reflexivity|].
    destruct (eval n m) eqn:E; cbn in Hs; try contradiction; [reflexivity|].
    exfalso. apply Hx. split; [exact Ep|eexists; exact E].
  Qed.

  (** ... and in the exceptional case the task's error is dropped: the caller
      gets the bytes and io.EOF as if the task had succeeded. *)
  Theorem task_error_dropped_at_readat_eof n id terr m :
    terr <> 0 -> eof_exception n m ->
    exists len off b, m = MReadAt len off /\ eval n m = Eof b /\
                      eval (withTask id terr n) m = Eof b.
  Proof.
    intros Ht [Ep [b E]]. destruct (eof_only_readat n m b E) as (len & off & ->).
    exists len, off, b. split; [reflexivity|]. split; [exact E|].
    rewrite (withTask_exact n id terr _ Ht); [|split; discriminate].
    rewrite Ep, E. reflexivity.
  Qed.

  (** Exact characterisation, all results: the task's error is what the
      caller sees iff the buffer was trivially cloneable, or the data was fine
      ([Ok]), or the data error happens to be the same code. *)
  Theorem task_error_reported_iff n id terr m :
    terr <> 0 -> completing m ->
    (eval (withTask id terr n) m = Err terr <->
     is_plain n = true \/ (exists x, eval n m = Ok x) \/ eval n m = Err terr).
  Proof.
    intros Ht Hc. rewrite (withTask_exact n id terr m Ht Hc).
    destruct (is_plain n); [split; [left; reflexivity|reflexivity]|].
    destruct (eval n m) eqn:E; split; intros H; try discriminate; try reflexivity.
    - destruct H as [H|[[x H]|H]]; discriminate.
    - right; left; eexists; reflexivity.
    - destruct H as [H|[[x H]|H]]; discriminate.
    - right; right; exact H.
    - destruct H as [H|[[x H]|H]]; try discriminate; exact H.
  Qed.

  (** A data error takes precedence (any node that is not trivially cloneable). *)
  Theorem data_error_first n id terr m c :
    terr <> 0 -> completing m -> is_plain n = false -> eval n m = Err c ->
    eval (withTask id terr n) m = Err c.
  Proof. intros Ht Hc Ep E. rewrite (withTask_exact n id terr m Ht Hc), Ep, E. reflexivity. Qed.

  Theorem withTask_ustream n id terr : is_plain n = false -> (forall c, n <> NErr c) ->
    ustream D flt (withTask id terr n) ChunkMode =
      (match fst (ustream D flt n ChunkMode) with
       | SData v => if Z.eqb terr 0 then SData v else SErr terr | s => s end, 0) /\
    ustream D flt (withTask id terr n) ReaderMode =
      (fst (ustream D flt n ReaderMode),
       if Z.eqb (snd (ustream D flt n ReaderMode)) 0 then terr else snd (ustream D flt n ReaderMode)).
  Proof.
    intros Ep Hne. destruct n; cbn in Ep; try discriminate; try (exfalso; eapply Hne; reflexivity);
      split; reflexivity.
  Qed.

  (** At any depth: no handle derived from a buffer with a failed task ever
      reports plain success. *)
  Definition never_ok (n : node) : Prop :=
    forall m, completing m -> forall x, eval n m <> Ok x.

  Lemma never_ok_withTask_failing n id terr : terr <> 0 -> never_ok (withTask id terr n).
  Proof.
    intros Ht m Hc x. rewrite (withTask_exact n id terr m Ht Hc).
    destruct (is_plain n); [discriminate|]. destruct (eval n m); discriminate.
  Qed.

  Lemma never_ok_NTask b dg src id terr : never_ok b -> never_ok (NTask b dg src id terr).
  Proof.
    intros Hb m Hc x. rewrite (eval_NTask D flt b dg src id terr m Hc).
    pose proof (Hb m Hc) as Hn. destruct (eval b m); try discriminate. exfalso. eapply Hn. reflexivity.
  Qed.

  Lemma never_ok_NTask_failing b dg src id terr : terr <> 0 -> never_ok (NTask b dg src id terr).
  Proof.
    intros Ht m Hc x. apply Z.eqb_neq in Ht. rewrite (eval_NTask D flt b dg src id terr m Hc), Ht.
    destruct (eval b m); discriminate.
  Qed.

  Lemma never_ok_NTask_inv b dg src id : never_ok (NTask b dg src id 0) -> never_ok b.
  Proof.
    intros H m Hc x E. apply (H m Hc x). rewrite (eval_NTask D flt b dg src id 0 m Hc), E. reflexivity.
  Qed.

  Lemma never_ok_NCloned b dg src nv : never_ok b -> never_ok (NCloned b dg src nv).
  Proof.
    intros Hb m [H1 H2] x. pose proof (Hb (MChunks 0) completing_chunks0) as H0.
    destruct m; cbn [Algebra.eval]; try congruence; try apply H0.
    - destruct (eval b (MChunks 0)) eqn:E; try discriminate. exfalso; eapply H0; reflexivity.
    - destruct dg; [|discriminate]. destruct (Nat.ltb _ _); [discriminate|apply H0].
    - destruct dg; [|discriminate]. destruct (Nat.ltb _ _); [discriminate|apply H0].
    - destruct (eval b (MChunks 0)) eqn:E; try discriminate. exfalso; eapply H0; reflexivity.
  Qed.

  Lemma never_ok_NCloned_inv b dg src nv nv' : never_ok (NCloned b dg src nv) -> never_ok (NCloned b dg src nv').
  Proof. intros H m Hc x. exact (H m Hc x). Qed.

  Lemma never_ok_NErr c : never_ok (NErr c).
  Proof. intros m Hc x. rewrite (eval_NErr D flt c m Hc). discriminate. Qed.

  Lemma never_ok_task_cases b dg src id terr :
    never_ok (NTask b dg src id terr) -> terr <> 0 \/ never_ok b.
  Proof.
    intros H. destruct (Z.eq_dec terr 0) as [->|Hne]; [right|left; exact Hne].
    eapply never_ok_NTask_inv; exact H.
  Qed.

  Lemma never_ok_decorate fixed b dg src id terr r :
    never_ok (NTask b dg src id terr) -> (never_ok b -> never_ok r) -> never_ok (decorate fixed dg src id terr r).
  Proof.
    intros H Hr. unfold decorate. destruct (never_ok_task_cases _ _ _ _ _ H) as [Hne|Hb].
    - destruct fixed; apply never_ok_NTask_failing; exact Hne.
    - destruct fixed; apply never_ok_NTask, Hr, Hb.
  Qed.

  Theorem never_ok_cloneStream fixed sv n : never_ok n -> never_ok (cloneStream fixed sv n).
  Proof.
    induction n; intros H; cbn [cloneStream]; try exact H.
    - apply never_ok_NCloned; exact H.
    - apply never_ok_NCloned; exact H.
    - apply (never_ok_decorate _ _ _ _ _ _ _ H IHn).
    - apply never_ok_NCloned; exact H.
  Qed.

  Lemma never_ok_copy_generic max n r : never_ok n ->
    match eval n (MSlice max) with
    | Ok _ | Eof _ => BNode NBytes
    | Err c => BNode (NErr c)
    | Panic => BPanic
    end = BNode r -> never_ok r.
  Proof.
    intros H E. assert (Hc : completing (MSlice max)) by (split; discriminate).
    destruct (eval n (MSlice max)) eqn:Ev; try discriminate.
    - exfalso; eapply H; [exact Hc|exact Ev].
    - destruct (eof_only_readat _ _ _ Ev) as (l & o & X); discriminate.
    - inversion E. apply never_ok_NErr.
  Qed.

  Theorem never_ok_cloneCopy fixed max n r :
    never_ok n -> cloneCopy D flt fixed max n = BNode r -> never_ok r.
  Proof.
    revert r. induction n; intros r H E; cbn [cloneCopy] in E;
      try (inversion E; subst; exact H);
      try (eapply never_ok_copy_generic; [exact H|exact E]).
    destruct (cloneCopy D flt fixed max n) as [|r'] eqn:Ec; [discriminate|].
    inversion E; subst r. apply (never_ok_decorate _ _ _ _ _ _ _ H). intros Hb. exact (IHn r' Hb eq_refl).
  Qed.

  Theorem never_ok_withTask n id terr : never_ok n -> never_ok (withTask id terr n).
  Proof.
    intros H. destruct n; cbn [withTask]; try exact H;
      try (exfalso; refine (H MWriter _ D _); [split; discriminate|reflexivity]);
      apply never_ok_NTask; exact H.
  Qed.

  (** Tasks whose completion the copying performed by CloneCopy has itself
      waited for (those of a consumed stream); tasks of a task-decorated buffer
      stay attached to the copy. *)
  Fixpoint copy_waited (max : nat) (n : node) : list nat :=
    match n with
    | NBytes | NProto | NErr _ | NReaderAt => []
    | NTask b _ _ _ _ => copy_waited max b
    | _ => waits n (MSlice max)
    end.

  Fixpoint prog_tasks (p : prog) : list nat :=
    match p with
    | Base _ => []
    | CloneStreamL q _ | CloneStreamR q _ | CloneCopyL q _ _ | CloneCopyR q _ _ | WithEH q _ => prog_tasks q
    | WithTask q id _ => id :: prog_tasks q
    end.

  (** Tasks that have finished when the constructors of the program have
      returned: those run in the foreground by WithTask on a trivially
      cloneable or error buffer, and those a CloneCopy waited for. *)
  Fixpoint finished_at_build (p : prog) : list nat :=
    match p with
    | Base _ => []
    | CloneStreamL q _ | CloneStreamR q _ | WithEH q _ => finished_at_build q
    | CloneCopyL q max _ | CloneCopyR q max _ =>
        finished_at_build q ++
        match build D flt true q with BNode n => copy_waited max n | BPanic => [] end
    | WithTask q id _ =>
        finished_at_build q ++
        match build D flt true q with
        | BNode (NBytes | NProto | NReaderAt | NErr _) => [id]
        | _ => []
        end
    end.

  Lemma incl_app_r {A} (l a b c : list A) : incl l (a ++ b) -> incl b c -> incl l (a ++ c).
  Proof. intros H1 H2. eapply incl_tran; [exact H1|]. apply incl_app; [apply incl_appl, incl_refl|apply incl_appr, H2]. Qed.

  Lemma tasks_cloneCopy max n r : cloneCopy D flt true max n = BNode r ->
    incl (tasks n) (copy_waited max n ++ tasks r).
  Proof.
    assert (Hc : completing (MSlice max)) by (split; discriminate).
    revert r. induction n; intros r E; cbn [cloneCopy] in E;
      try (inversion E; subst; cbn; apply incl_refl);
      try (apply incl_appl; apply tasks_waited; exact Hc).
    destruct (cloneCopy D flt true max n) as [|r'] eqn:Ec; [discriminate|].
    inversion E; subst r. cbn [tasks copy_waited decorate].
    apply incl_cons; [apply in_or_app; right; left; reflexivity|].
    apply (incl_app_r _ _ _ _ (IHn r' eq_refl)), incl_tl, incl_refl.
  Qed.

  Lemma tasks_withEH h n : tasks (withEH h n) = tasks n.
  Proof. destruct n; reflexivity. Qed.

  (** Every task attached anywhere along the program has either finished
      before the constructors returned or is still attached to the result. *)
  Theorem prog_tasks_accounted p n : build D flt true p = BNode n ->
    incl (prog_tasks p) (finished_at_build p ++ tasks n).
  Proof.
    revert n. induction p; intros n H; cbn [build] in H; cbn [prog_tasks finished_at_build].
    1: intros a [].
    all: destruct (build D flt true p) as [|n0]; [discriminate|]; cbn [bbind] in H; specialize (IHp n0 eq_refl).
    1,2: inversion H; exact (incl_app_r _ _ _ _ IHp (task_kept_by_cloneStream _ _)).
    1,2: rewrite <- app_assoc; exact (incl_app_r _ _ _ _ IHp (tasks_cloneCopy _ _ _ H)).
    - inversion H; subst n. rewrite <- app_assoc. apply incl_cons.
      + apply in_or_app. right. destruct n0; cbn [withTask]; try destruct (Z.eqb terr 0);
          cbn; auto.
      + apply (incl_app_r _ _ _ _ IHp). apply incl_appr.
        destruct n0; cbn [withTask]; try destruct (Z.eqb terr 0); cbn; auto using incl_refl, incl_tl.
    - inversion H; subst n. rewrite tasks_withEH. exact IHp.
  Qed.

  (** Completion is never reported before the tasks have finished: for every
      program of any depth (clones of clones of ... a buffer with tasks), on
      the object it builds, a completing method — whatever its result, in
      particular a successful one — returns only after every task attached
      anywhere along the program has finished. *)
  Theorem completion_not_before_task p n m :
    build D flt true p = BNode n -> completing m ->
    incl (prog_tasks p) (finished_at_build p ++ waits n m).
  Proof.
    intros H Hc. exact (incl_app_r _ _ _ _ (prog_tasks_accounted p n H) (tasks_waited n m Hc)).
  Qed.

  (** The handles given to sibling consumers are objects built by
      sub-programs, so the theorem above covers them as well. *)
  Inductive subprog : prog -> prog -> Prop :=
  | sub_refl p : subprog p p
  | sub_csl q p sib : subprog q p -> subprog q (CloneStreamL p sib)
  | sub_csr q p sib : subprog q p -> subprog q (CloneStreamR p sib)
  | sub_ccl q p max sib : subprog q p -> subprog q (CloneCopyL p max sib)
  | sub_ccr q p max sib : subprog q p -> subprog q (CloneCopyR p max sib)
  | sub_task q p id terr : subprog q p -> subprog q (WithTask p id terr)
  | sub_eh q p h : subprog q p -> subprog q (WithEH p h).

  Theorem siblings_are_subprograms p h : In h (siblings D flt true p) ->
    exists q, subprog q p /\ fst h = build D flt true q.
  Proof.
    induction p; cbn [siblings]; intros Hin; try contradiction;
      try (apply in_app_or in Hin; destruct Hin as [Hin|[<-|[]]];
           [destruct (IHp Hin) as (q & Hs & Hq); exists q; split; [constructor; exact Hs|exact Hq]
           |eexists; split; [apply sub_refl|reflexivity]]);
      destruct (IHp Hin) as (q & Hs & Hq); exists q; (split; [constructor; exact Hs|exact Hq]).
  Qed.

  Theorem siblings_nopanic p h :
    In h (siblings D flt true p) ->
    exists n, fst h = BNode n /\ wf n /\ eval n (snd h) <> Panic.
  Proof.
    intros Hin. destruct (siblings_are_subprograms p h Hin) as (q & _ & ->). apply handle_ok.
  Qed.

  Theorem completion_not_before_task_siblings p h n :
    In h (siblings D flt true p) -> fst h = BNode n -> completing (snd h) ->
    exists q, subprog q p /\ incl (prog_tasks q) (finished_at_build q ++ waits n (snd h)).
  Proof.
    intros Hin Hn Hc. destruct (siblings_are_subprograms p h Hin) as (q & Hs & Hq).
    exists q. split; [exact Hs|]. apply completion_not_before_task; [rewrite <- Hq; exact Hn|exact Hc].
  Qed.
End T.

(** The exception exists: a CAS reader buffer with a failed task, ReadAt of 5
    bytes at offset 0 of a 3-byte object. *)
Example readat_eof_drops_task_error :
  let n := NReader (Some 3%nat) (Some 13) in
  eval [1; 2; 3] FNone n (MReadAt 5 0) = Eof [1; 2; 3] /\
  eval [1; 2; 3] FNone (withTask 0 14 n) (MReadAt 5 0) = Eof [1; 2; 3] /\
  eval [1; 2; 3] FNone (withTask 0 14 n) (MReadAt 3 0) = Err 14 /\
  run [1; 2; 3] FNone true (WithTask (Base KReader) 0 14) (MReadAt 5 0) = Eof [1; 2; 3].
Proof. vm_compute. repeat split; reflexivity. Qed.
