(** C09 — the monitor [mon09] is silent on the model's own output:
    for every input whose script error codes are genuine gRPC error codes
    (positive) and on which the model did not run out of fuel,
    [mon09 inp (run09 inp) = []].

    Both hypotheses are necessary in the sx encoding: a script error with code
    0 / -1 is indistinguishable from nil / io.EOF in an observation, and
    out-of-fuel (code -3) is no source error (e.g. ToChunkReader with maximum
    chunk size 0 never ends); the witnesses are [mon09_fires_on_error_code_0]
    and [mon09_fires_without_fuel] in Props/C09.v. *)
From Coq Require Import List ZArith NArith Bool Lia.
From BBS Require Import Common.Sx Buffer.Source Buffer.Validate Buffer.Convert Buffer.StreamProofs
  Buffer.ValidateProofs Buffer.ConvertProofs Buffer.ReaderBufferProofs
  Buffer.ConvertProofs2 Buffer.C09FullValidate
  Buffer.C09FullChunk Buffer.C09FullReaderBuf Buffer.C09FullExtras Run.R09.
Import ListNotations.
Open Scope N_scope.

Definition code_of (e : err) : Z := sx_Z (enc_err e).

Lemma dec_bytes_of_Ns l : dec_bytes (of_Ns l) = l.
Proof.
  unfold dec_bytes, of_Ns, sx_Ns. cbn [sx_list]. rewrite map_map.
  induction l as [|x l IH]; cbn [map]; [reflexivity|]. rewrite IH. f_equal.
  unfold sx_N, of_N. cbn [sx_Z]. apply N2Z.id.
Qed.
Lemma sx_bools_of_bools l : map sx_bool (map of_bool l) = l.
Proof. induction l as [|[|] l IH]; cbn [map]; rewrite ?IH; reflexivity. Qed.

Definition out09 (inp : sx) : outcome :=
  let c := dec_case inp in
  let H := lookup (k_tbl c) in
  let fuel := script_fuel (k_evs c) in
  match k_kind c with
  | 0%Z => cas_byte_slice H (k_cfg c) fuel (fst (content (k_evs c))) (k_meth c)
  | 1%Z => cas_reader H (k_cfg c) fuel (k_evs c) (k_attach c) (k_meth c)
  | _ => cas_chunk_reader H (k_cfg c) fuel (k_evs c) (k_meth c)
  end.
Lemma run09_out09 inp : run09 inp = enc_out (k_report (dec_case inp)) (out09 inp).
Proof. reflexivity. Qed.

Definition mon_clauses (gcode : Z) (size : N) (cont : bytes) (term : err) (valid : bool) (m : meth)
    (delivered : bytes) (code : Z) (cbs : list bool) (aux : bytes) : list Z :=
  let done := completes m code in
  if is_discard m then [] else
  (if done && negb valid then [1%Z] else []) ++
  (if done && valid && negb (bytes_eqb delivered (expected m cont)
        && match m with MCloneCopy _ => bytes_eqb aux cont | _ => true end) then [2%Z] else []) ++
  (if negb done &&
      negb ((negb valid && (err_eqb term EEof || (size <? lenN cont)) && (code =? gcode)%Z)
            || err_eqb term (ECode code)
            || (bad_param size m && (code =? 3)%Z))
   then [3%Z] else []) ++
  (if negb valid && err_eqb term EEof && negb (bad_param size m) && negb (code =? gcode)%Z
   then [4%Z] else []) ++
  (if negb valid && negb (is_nil delivered) && negb (m_off m + Z.of_N (lenN delivered) <? Z.of_N size)%Z
   then [5%Z] else []) ++
  (if existsb (fun b => b) cbs && negb valid then [6%Z] else []) ++
  (if existsb negb cbs && valid then [7%Z] else []).

Definition term09 (c : case09) : err := if (k_kind c =? 0)%Z then EEof else snd (content (k_evs c)).
Definition valid09 (c : case09) : bool :=
  err_eqb (term09 c) EEof && (lenN (fst (content (k_evs c))) =? g_size (k_cfg c))
  && bytes_eqb (g_hash (k_cfg c)) (lookup (k_tbl c) (fst (content (k_evs c)))).

Lemma mon09_clauses inp r o :
  mon09 inp (enc_out r o) =
  let c := dec_case inp in
  mon_clauses (g_code (k_cfg c)) (g_size (k_cfg c)) (fst (content (k_evs c))) (term09 c) (valid09 c) (k_meth c)
    (o_data o) (code_of (o_err o)) (if r then o_cbs o else []) (o_aux o).
Proof.
  unfold mon09, mon_clauses, enc_out, valid09, term09, code_of. cbn [sx_nth sx_list nth].
  destruct (content (k_evs (dec_case inp))) as [cont term]. cbn [fst snd].
  rewrite !dec_bytes_of_Ns. destruct r; [rewrite sx_bools_of_bools|]; reflexivity.
Qed.

Lemma bytes_eqb_refl a : bytes_eqb a a = true.
Proof. apply bytes_eqb_eq. reflexivity. Qed.

Lemma existsb_id_In cbs : existsb (fun b : bool => b) cbs = true -> In true cbs.
Proof. intros Hx. apply existsb_exists in Hx. destruct Hx as (b & Hin & Hb). now subst b. Qed.
Lemma existsb_negb_In cbs : existsb negb cbs = true -> In false cbs.
Proof. intros Hx. apply existsb_exists in Hx. destruct Hx as ([|] & Hin & Hb); [discriminate|exact Hin]. Qed.

Lemma mon_clauses_nil gcode size cont term valid m delivered code cbs aux :
  (valid = false -> completes m code = false) ->
  (valid = true -> completes m code = true ->
     delivered = expected m cont /\ (forall mx, m = MCloneCopy mx -> aux = cont)) ->
  (completes m code = false ->
     (valid = false /\ (term = EEof \/ size < lenN cont) /\ code = gcode) \/ term = ECode code \/
     (bad_param size m = true /\ code = 3%Z)) ->
  (valid = false -> term = EEof -> bad_param size m = false -> code = gcode) ->
  (valid = false -> delivered = [] \/ (m_off m + Z.of_N (lenN delivered) < Z.of_N size)%Z) ->
  (In true cbs -> valid = true) -> (In false cbs -> valid = false) ->
  mon_clauses gcode size cont term valid m delivered code cbs aux = [].
Proof.
  intros F1 F2 F3 F4 F5 F6 F7. unfold mon_clauses. destruct (is_discard m); [reflexivity|].
  assert (E1 : completes m code && negb valid = false).
  { destruct valid; [apply andb_false_r|]. rewrite (F1 eq_refl). reflexivity. }
  assert (E2 : completes m code && valid && negb (bytes_eqb delivered (expected m cont)
                 && match m with MCloneCopy _ => bytes_eqb aux cont | _ => true end) = false).
  { destruct (completes m code) eqn:Ed; [|reflexivity]. destruct valid; [|reflexivity].
    destruct (F2 eq_refl eq_refl) as (-> & Ha). rewrite bytes_eqb_refl.
    destruct m; try reflexivity. rewrite (Ha _ eq_refl), bytes_eqb_refl. reflexivity. }
  assert (E3 : negb (completes m code) &&
      negb ((negb valid && (err_eqb term EEof || (size <? lenN cont)) && (code =? gcode)%Z)
            || err_eqb term (ECode code) || (bad_param size m && (code =? 3)%Z)) = false).
  { destruct (completes m code) eqn:Ed; [reflexivity|]. cbn [negb andb]. apply negb_false_iff.
    destruct (F3 eq_refl) as [(-> & Hw & ->)|[->|(-> & ->)]].
    - cbn [negb andb]. rewrite Z.eqb_refl. destruct Hw as [->|Hl]; [reflexivity|].
      apply N.ltb_lt in Hl. rewrite Hl, orb_true_r. reflexivity.
    - cbn [err_eqb]. rewrite Z.eqb_refl, orb_true_r. reflexivity.
    - cbn. apply orb_true_r. }
  assert (E4 : negb valid && err_eqb term EEof && negb (bad_param size m) && negb (code =? gcode)%Z = false).
  { destruct valid; [reflexivity|]. destruct (err_eqb term EEof) eqn:Et; [|reflexivity].
    destruct (bad_param size m) eqn:Eb; [reflexivity|]. cbn [negb andb].
    assert (term = EEof) by (destruct term; try discriminate; reflexivity).
    rewrite (F4 eq_refl H eq_refl), Z.eqb_refl. reflexivity. }
  assert (E5 : negb valid && negb (is_nil delivered) && negb (m_off m + Z.of_N (lenN delivered) <? Z.of_N size)%Z = false).
  { destruct valid; [reflexivity|]. destruct (F5 eq_refl) as [->|Hl]; [reflexivity|].
    apply Z.ltb_lt in Hl. rewrite Hl. apply andb_false_r. }
  assert (E6 : existsb (fun b : bool => b) cbs && negb valid = false).
  { destruct (existsb (fun b : bool => b) cbs) eqn:Ex; [|reflexivity]. rewrite (F6 (existsb_id_In _ Ex)). reflexivity. }
  assert (E7 : existsb negb cbs && valid = false).
  { destruct (existsb negb cbs) eqn:Ex; [|reflexivity]. rewrite (F7 (existsb_negb_In _ Ex)). reflexivity. }
  cbv zeta. rewrite E1, E2, E3, E4, E5, E6, E7. reflexivity.
Qed.

Lemma expected_eq m c : expected m c = expected_slice m c.
Proof. destruct m; reflexivity. Qed.

Lemma completes_completed m e :
  (forall x, e = ECode x -> (0 < x)%Z) -> completes m (code_of e) = completed m e.
Proof.
  intros Hpos. destruct e; try (destruct m; reflexivity).
  specialize (Hpos c eq_refl). unfold code_of. cbn [enc_err sx_Z].
  assert ((c =? 0)%Z = false) by (apply Z.eqb_neq; lia).
  assert ((c =? -1)%Z = false) by (apply Z.eqb_neq; lia).
  destruct m; cbn [completes completed is_none err_eqb orb]; rewrite ?H, ?H0; reflexivity.
Qed.

Lemma content_err_in evs x : snd (content evs) = ECode x -> In (Err x) evs.
Proof.
  induction evs as [|[bs|c|] r IH]; cbn [content]; try discriminate.
  - destruct (content r) as [c e]. cbn [snd] in *. intros Hx. right. exact (IH Hx).
  - cbn [snd]. intros Hx. inv Hx. left. reflexivity.
Qed.

Lemma validb_spec H cfg evs :
  err_eqb (snd (content evs)) EEof && (lenN (fst (content evs)) =? g_size cfg)
  && bytes_eqb (g_hash cfg) (H (fst (content evs))) = true <-> valid_script H cfg evs.
Proof.
  unfold valid_script. rewrite !andb_true_iff, N.eqb_eq, bytes_eqb_eq. split.
  - intros ((He & Hl) & Hh). rsplit; auto. destruct (snd (content evs)); try discriminate. reflexivity.
  - intros (He & Hl & Hh). rewrite He. auto.
Qed.

Lemma m_off_nonneg size m : bad_param size m = false -> (0 <= m_off m)%Z.
Proof.
  destruct m; cbn [bad_param m_off]; try lia.
  intros Hx. apply negb_false_iff in Hx. unfold valid_offset in Hx. apply andb_true_iff in Hx.
    destruct Hx as [Hx _]. apply Z.leb_le in Hx. exact Hx.
Qed.

Section OutcomeFacts.
  Variable cfg : vcfg.
  Variable cont : bytes.
  Variable term : err.
  Variable valid : bool.
  Variable m : meth.
  Variable o : outcome.
  Hypothesis Hgpos : (0 < g_code cfg)%Z.
  Hypothesis Hterm : term = EEof \/ exists x, term = ECode x /\ (0 < x)%Z.
  Hypothesis Tcomplete : completed m (o_err o) = true -> valid = true /\ o_data o = expected_slice m cont.
  Hypothesis Tclone : forall mx, m = MCloneCopy mx -> o_err o = ENone -> o_aux o = o_data o.
  Hypothesis Tcbs : forall b, In b (o_cbs o) -> b = valid.
  Hypothesis Tfail : completed m (o_err o) = false ->
    (valid = false /\ o_err o = expected_err cfg cont term /\
     (o_data o = [] \/ (m_off m + Z.of_N (lenN (o_data o)) < Z.of_N (g_size cfg))%Z)) \/
    (bad_param (g_size cfg) m = true /\ o_err o = ECode 3 /\ o_data o = []).

  Lemma err_positive x : o_err o = ECode x -> (0 < x)%Z.
  Proof.
    intros Hx. destruct (completed m (o_err o)) eqn:Hc; [rewrite Hx, completed_not_code in Hc; discriminate|].
    destruct (Tfail eq_refl) as [(_ & He & _)|(_ & He & _)]; rewrite He in Hx; [|inv Hx; lia].
    unfold expected_err in Hx. destruct (g_size cfg <? lenN cont); [inv Hx; exact Hgpos|].
    destruct Hterm as [->|(y & -> & Hy)]; inv Hx; assumption.
  Qed.

  Lemma invalid_fails : valid = false -> completed m (o_err o) = false.
  Proof. intros Hv. destruct (completed m (o_err o)) eqn:Hc; [|reflexivity]. destruct (Tcomplete eq_refl). congruence. Qed.

  Lemma outcome_silent (r : bool) :
    mon_clauses (g_code cfg) (g_size cfg) cont term valid m
      (o_data o) (code_of (o_err o)) (if r then o_cbs o else []) (o_aux o) = [].
  Proof.
    pose proof (completes_completed m (o_err o) err_positive) as Hcc.
    assert (Hcbs : forall b, In b (if r then o_cbs o else []) -> b = valid) by (destruct r; [exact Tcbs|intros b []]).
    apply mon_clauses_nil.
    - (* 1 *) intros Hv. rewrite Hcc. exact (invalid_fails Hv).
    - (* 2 *) intros Hv Hd. rewrite Hcc in Hd. destruct (Tcomplete Hd) as (_ & Hdata). rewrite expected_eq. split; [exact Hdata|].
      intros mx ->. cbn [completed] in Hd. rewrite (Tclone mx eq_refl); [exact Hdata|].
      destruct (o_err o); try discriminate; reflexivity.
    - (* 3 *) intros Hd. rewrite Hcc in Hd. destruct (Tfail Hd) as [(Hv & He & _)|(Hb & He & _)]; rewrite He.
      + unfold expected_err. destruct (g_size cfg <? lenN cont) eqn:Hl.
        * left. apply N.ltb_lt in Hl. auto.
        * destruct Hterm as [->|(y & -> & _)]; [left; auto|right; left; reflexivity].
      + right. right. auto.
    - (* 4 *) intros Hv Ht Eb. destruct (Tfail (invalid_fails Hv)) as [(_ & He & _)|(Hb & _)]; [|congruence].
      rewrite He, Ht, expected_err_clean_end. reflexivity.
    - (* 5 *) intros Hv. destruct (Tfail (invalid_fails Hv)) as [(_ & _ & Hd)|(_ & _ & Hd)]; [exact Hd|left; exact Hd].
    - (* 6 *) intros Hin. symmetry. exact (Hcbs _ Hin).
    - (* 7 *) intros Hin. symmetry. exact (Hcbs _ Hin).
  Qed.
End OutcomeFacts.

Section StreamFacts.
  Variable H : bytes -> bytes.
  Variable cfg : vcfg.
  Variable evs : list ev.
  Variable m : meth.
  Variable o : outcome.
  Hypothesis Hgpos : (0 < g_code cfg)%Z.
  Hypothesis Hpos : forall x, In (Err x) evs -> (0 < x)%Z.
  (** what the constructor-level theorems say, for either constructor *)
  Hypothesis Tcomplete : completed m (o_err o) = true ->
    valid_script H cfg evs /\ o_data o = expected_slice m (fst (content evs)).
  Hypothesis Tclone : forall mx, m = MCloneCopy mx -> o_err o = ENone -> o_aux o = o_data o.
  Hypothesis Tcbs : (In true (o_cbs o) -> valid_script H cfg evs) /\ (In false (o_cbs o) -> ~ valid_script H cfg evs).
  Hypothesis Totherwise : ~ valid_script H cfg evs -> bad_param (g_size cfg) m = false ->
    o_err o = expected_err cfg (fst (content evs)) (snd (content evs)) /\
    (o_data o = [] \/ Z.to_N (m_off m) + lenN (o_data o) < g_size cfg).
  Hypothesis Tbad : bad_param (g_size cfg) m = true -> o_err o = ECode 3 /\ o_data o = [].
  Hypothesis Tvalid : valid_script H cfg evs -> bad_param (g_size cfg) m = false -> completed m (o_err o) = true.

  Let validb := err_eqb (snd (content evs)) EEof && (lenN (fst (content evs)) =? g_size cfg)
                && bytes_eqb (g_hash cfg) (H (fst (content evs))).

  Lemma stream_silent (r : bool) :
    mon_clauses (g_code cfg) (g_size cfg) (fst (content evs)) (snd (content evs)) validb m
      (o_data o) (code_of (o_err o)) (if r then o_cbs o else []) (o_aux o) = [].
  Proof.
    assert (Hvt : validb = true -> valid_script H cfg evs) by (intros Hv; apply validb_spec; exact Hv).
    assert (Hvf : validb = false -> ~ valid_script H cfg evs).
    { intros Hv Hs. apply validb_spec in Hs. unfold validb in Hv. congruence. }
    apply (outcome_silent cfg _ _ validb m o Hgpos).
    - destruct (content_term evs) as [Ht|(x & Ht)]; [left; exact Ht|right]. exists x. split; [exact Ht|].
      apply Hpos, content_err_in. exact Ht.
    - intros Hc. destruct (Tcomplete Hc) as (Hv & Hd). split; [apply validb_spec; exact Hv|exact Hd].
    - exact Tclone.
    - intros b Hin. destruct validb eqn:Ev; destruct b; try reflexivity; exfalso.
      + exact (proj2 Tcbs Hin (Hvt eq_refl)).
      + exact (Hvf eq_refl (proj1 Tcbs Hin)).
    - intros Hc. destruct (bad_param (g_size cfg) m) eqn:Eb; [right; destruct (Tbad eq_refl); auto|left].
      destruct validb eqn:Ev; [rewrite (Tvalid (Hvt eq_refl) eq_refl) in Hc; discriminate|].
      destruct (Totherwise (Hvf eq_refl) eq_refl) as (He & Hd). rsplit; [reflexivity|exact He|].
      destruct Hd as [Hd|Hd]; [left; exact Hd|right]. pose proof (m_off_nonneg _ _ Eb). lia.
  Qed.
End StreamFacts.

Lemma clone_copy_of_aux r cbs closed :
  o_err (clone_copy_of r cbs closed) = ENone ->
  o_aux (clone_copy_of r cbs closed) = o_data (clone_copy_of r cbs closed).
Proof. unfold clone_copy_of. destruct (snd r); cbn; congruence. Qed.

Lemma chunk_silent H cfg fuel evs m (r : bool) :
  (0 < g_code cfg)%Z -> (forall x, In (Err x) evs -> (0 < x)%Z) -> m <> MDiscard ->
  let o := cas_chunk_reader H cfg fuel evs m in
  o_err o <> EFuel ->
  mon_clauses (g_code cfg) (g_size cfg) (fst (content evs)) (snd (content evs))
    (err_eqb (snd (content evs)) EEof && (lenN (fst (content evs)) =? g_size cfg)
     && bytes_eqb (g_hash cfg) (H (fst (content evs)))) m
    (o_data o) (code_of (o_err o)) (if r then o_cbs o else []) (o_aux o) = [].
Proof.
  intros Hgpos Hpos Hm o Hnf. apply (stream_silent H cfg evs m o Hgpos Hpos).
  - intros Hc. eapply chunk_reader_complete_implies_valid; [exact Hm|reflexivity|exact Hc].
  - intros mx Hmx. subst o. rewrite Hmx. cbn [cas_chunk_reader].
    destruct (to_byte_slice_cr _ _ _ _ _ _) as [rr st]. apply clone_copy_of_aux.
  - apply chunk_callbacks_sound.
  - intros Hnv Hb. destruct (chunk_otherwise H cfg fuel evs m o Hm eq_refl Hnf Hnv Hb) as (A & B & _). auto.
  - intros Hb. destruct (chunk_bad_param H cfg fuel evs m o eq_refl Hnf Hb) as (A & B & _). auto.
  - intros Hv Hb. exact (chunk_valid_completes H cfg fuel evs m o Hm eq_refl Hnf Hv Hb).
Qed.

Lemma reader_silent H cfg fuel evs attach m (r : bool) :
  (0 < g_code cfg)%Z -> (forall x, In (Err x) evs -> (0 < x)%Z) -> m <> MDiscard ->
  let o := cas_reader H cfg fuel evs attach m in
  o_err o <> EFuel ->
  mon_clauses (g_code cfg) (g_size cfg) (fst (content evs)) (snd (content evs))
    (err_eqb (snd (content evs)) EEof && (lenN (fst (content evs)) =? g_size cfg)
     && bytes_eqb (g_hash cfg) (H (fst (content evs)))) m
    (o_data o) (code_of (o_err o)) (if r then o_cbs o else []) (o_aux o) = [].
Proof.
  intros Hgpos Hpos Hm o Hnf. apply (stream_silent H cfg evs m o Hgpos Hpos).
  - intros Hc. eapply ReaderBufferProofs.reader_complete_implies_valid; [exact Hm|reflexivity|exact Hc].
  - intros mx Hmx. subst o. rewrite Hmx. cbn [cas_reader].
    destruct (to_byte_slice_r _ _ _ _ _) as [rr st]. apply clone_copy_of_aux.
  - apply reader_callbacks_sound.
  - intros Hnv Hb. destruct (reader_otherwise H cfg fuel evs attach m o Hm eq_refl Hnf Hnv Hb) as (A & B & _). auto.
  - intros Hb. destruct (reader_bad_param H cfg fuel evs attach m o eq_refl Hb) as (A & B & _). auto.
  - intros Hv Hb. exact (reader_valid_completes H cfg fuel evs attach m o Hm eq_refl Hnf Hv Hb).
Qed.

Lemma byte_slice_buffer_fails fuel data cbs closed m :
  m <> MDiscard ->
  o_err (byte_slice_buffer fuel data cbs closed m) <> EFuel ->
  completed m (o_err (byte_slice_buffer fuel data cbs closed m)) = false ->
  bad_param (lenN data) m = true /\ o_err (byte_slice_buffer fuel data cbs closed m) = ECode 3 /\
  o_data (byte_slice_buffer fuel data cbs closed m) = [].
Proof.
  intros Hm. destruct m; try congruence; cbn [byte_slice_buffer bad_param completed].
  - destruct (max <? lenN data); cbn; [auto|discriminate].
  - cbn. discriminate.
  - destruct (off <? 0)%Z; [cbn; auto|]. destruct (lenN data <? Z.to_N off); [cbn; discriminate|].
    destruct (lenN _ <? plen); cbn; discriminate.
  - destruct (valid_offset (lenN data) off); [|cbn; auto].
    destruct (drain (bs_read max) fuel [] _) as [[out e] s] eqn:Hd. destruct (extra_reads _ extra s) as [ex s2].
    cbn [o_err]. intros Hnf Hc. exfalso.
    destruct (drain_drains _ _ _ _ _ _ _ _ Hd Hnf) as (bs & _ & Hds).
    destruct (bs_read_drains _ _ _ _ _ Hds) as (_ & ->). discriminate.
  - destruct (rconsume bb_read fuel caps (last_cap caps) [] data) as [[out e] s] eqn:Hr.
    destruct (rextra _ extra _ s) as [ex s2]. cbn [o_err]. intros Hnf Hc. exfalso.
    rewrite (proj2 (bb_rconsume _ _ _ _ _ _ _ _ Hr Hnf)) in Hc. discriminate.
  - destruct (max <? lenN data); cbn; [auto|discriminate].
Qed.

Lemma byte_slice_silent H cfg fuel data m (r : bool) :
  (0 < g_code cfg)%Z -> o_err (cas_byte_slice H cfg fuel data m) <> EFuel ->
  let o := cas_byte_slice H cfg fuel data m in
  mon_clauses (g_code cfg) (g_size cfg) data EEof
    (err_eqb EEof EEof && (lenN data =? g_size cfg) && bytes_eqb (g_hash cfg) (H data)) m
    (o_data o) (code_of (o_err o)) (if r then o_cbs o else []) (o_aux o) = [].
Proof.
  intros Hgpos Hnf o. destruct (is_discard m) eqn:Hdis; [unfold mon_clauses; rewrite Hdis; reflexivity|].
  assert (Hm : m <> MDiscard) by (intros ->; discriminate).
  set (vb := err_eqb EEof EEof && (lenN data =? g_size cfg) && bytes_eqb (g_hash cfg) (H data)).
  assert (Hvb : vb = true <-> lenN data = g_size cfg /\ g_hash cfg = H data).
  { unfold vb. cbn [err_eqb andb]. rewrite andb_true_iff, N.eqb_eq, bytes_eqb_eq. reflexivity. }
  apply (outcome_silent cfg data EEof vb m o Hgpos).
  - left. reflexivity.
  - intros Hc. destruct (byte_slice_complete_implies_valid H cfg fuel data m Hm Hc) as (Hl & Hh & Hd).
    split; [apply Hvb; auto|exact Hd].
  - intros mx -> He. unfold o, cas_byte_slice in *.
    destruct (negb (g_size cfg =? lenN data)); [discriminate He|].
    destruct (negb (bytes_eqb (g_hash cfg) (H data))); [discriminate He|].
    cbn [byte_slice_buffer] in *. destruct (mx <? lenN data); [discriminate He|reflexivity].
  - intros b Hin. unfold o in Hin. rewrite byte_slice_callback in Hin. destruct Hin as [<-|[]].
    unfold vb. cbn [err_eqb andb]. rewrite N.eqb_sym. reflexivity.
  - intros Hc. destruct vb eqn:Ev.
    + (* valid data: only a rejected parameter keeps the call from completing *)
      right. destruct (proj1 Hvb eq_refl) as (Hl & Hh). unfold o, cas_byte_slice in *.
      replace (g_size cfg =? lenN data) with true in * by (symmetry; apply N.eqb_eq; auto).
      replace (bytes_eqb (g_hash cfg) (H data)) with true in * by (symmetry; apply bytes_eqb_eq; exact Hh).
      cbn [negb] in *. rewrite <- Hl. exact (byte_slice_buffer_fails fuel data [true] 0 m Hm Hnf Hc).
    + left. assert (Hnv : ~ (lenN data = g_size cfg /\ g_hash cfg = H data)) by (intros Hv; apply Hvb in Hv; discriminate).
      pose proof (byte_slice_otherwise H cfg fuel data m Hm Hnv) as Hx. cbv zeta in Hx. destruct Hx as (He & Hd & _).
      rsplit; [reflexivity|rewrite expected_err_clean_end; exact He|left; exact Hd].
Qed.

Theorem mon09_silent_on_model inp :
  (forall x, In (Err x) (k_evs (dec_case inp)) -> (0 < x)%Z) ->
  o_err (out09 inp) <> EFuel ->
  mon09 inp (run09 inp) = [].
Proof.
  intros Hpos Hnf. rewrite run09_out09, mon09_clauses. cbv zeta.
  set (c := dec_case inp) in *.
  assert (Hgpos : (0 < g_code (k_cfg c))%Z).
  { subst c. unfold dec_case. cbn [k_cfg g_code]. destruct (sx_bool (sx_nth inp 1)); lia. }
  destruct (is_discard (k_meth c)) eqn:Hdis; [unfold mon_clauses; rewrite Hdis; reflexivity|].
  assert (Hm : k_meth c <> MDiscard) by (intros Hx; rewrite Hx in Hdis; discriminate).
  unfold out09 in *. fold c in Hnf |- *. unfold valid09, term09.
  set (H := lookup (k_tbl c)) in *. set (fuel := script_fuel (k_evs c)) in *.
  destruct (k_kind c) as [|[p|p|]|p] eqn:Hk; cbn [Z.eqb Pos.eqb].
  - (* byte slice *)
    exact (byte_slice_silent H (k_cfg c) fuel (fst (content (k_evs c))) (k_meth c) (k_report c) Hgpos Hnf).
  - exact (chunk_silent H (k_cfg c) fuel (k_evs c) (k_meth c) (k_report c) Hgpos Hpos Hm Hnf).
  - exact (chunk_silent H (k_cfg c) fuel (k_evs c) (k_meth c) (k_report c) Hgpos Hpos Hm Hnf).
  - exact (reader_silent H (k_cfg c) fuel (k_evs c) (k_attach c) (k_meth c) (k_report c) Hgpos Hpos Hm Hnf).
  - exact (chunk_silent H (k_cfg c) fuel (k_evs c) (k_meth c) (k_report c) Hgpos Hpos Hm Hnf).
Qed.
