(** C09/C16 — scripted sources and the parts of Go's [io] package the buffer
    layer relies on.  Definitions only.

    Go multi-value returns are products: a reader returns [(data, err)] and
    both may be non-trivial.  Consumers in pkg/blobstore/buffer look at the
    error first.  Loops that the Go code runs until the source says stop take
    fuel; running out of fuel is the explicit error [EFuel], which no theorem
    counts as completion. *)
From Coq Require Import List ZArith NArith Bool.
Import ListNotations.
Open Scope N_scope.

Definition bytes := list N.

(** [error] values that matter: nil, io.EOF, io.ErrUnexpectedEOF, a gRPC
    status with a code, and the model's out-of-fuel marker. *)
Inductive err := ENone | EEof | EUnexp | ECode (c : Z) | EFuel.

Definition err_eqb (a b : err) : bool :=
  match a, b with
  | ENone, ENone | EEof, EEof | EUnexp, EUnexp | EFuel, EFuel => true
  | ECode x, ECode y => Z.eqb x y
  | _, _ => false
  end.
Definition is_none (e : err) : bool := match e with ENone => true | _ => false end.

Definition lenN (l : bytes) : N := N.of_nat (length l).

Fixpoint takeN (n : N) (l : bytes) : bytes :=
  match l with
  | [] => []
  | x :: t => if n =? 0 then [] else x :: takeN (N.pred n) t
  end.
Fixpoint dropN (n : N) (l : bytes) : bytes :=
  match l with
  | [] => []
  | x :: t => if n =? 0 then l else dropN (N.pred n) t
  end.

Fixpoint bytes_eqb (a b : bytes) : bool :=
  match a, b with
  | [], [] => true
  | x :: a', y :: b' => (x =? y) && bytes_eqb a' b'
  | _, _ => false
  end.

Definition is_nil (l : bytes) : bool := match l with [] => true | _ => false end.

(** Script events of a source. *)
Inductive ev := Chunk (bs : bytes) | Err (c : Z) | Eof.

(** The content of a script: the chunks before the first event that is not a
    chunk, and that event as an error value (an exhausted script says EOF). *)
Fixpoint content (evs : list ev) : bytes * err :=
  match evs with
  | [] => ([], EEof)
  | Chunk bs :: r => let '(c, e) := content r in (bs ++ c, e)
  | Err c :: _ => ([], ECode c)
  | Eof :: _ => ([], EEof)
  end.

(** * Scripted ChunkReader *)
Record csrc := mkCsrc { c_rest : list ev; c_closed : nat }.

Definition csrc_read (s : csrc) : (bytes * err) * csrc :=
  match c_rest s with
  | [] => (([], EEof), s)
  | Chunk bs :: r => ((bs, ENone), mkCsrc r (c_closed s))
  | Err c :: r => (([], ECode c), mkCsrc r (c_closed s))
  | Eof :: r => (([], EEof), mkCsrc r (c_closed s))
  end.
Definition csrc_close (s : csrc) : csrc := mkCsrc (c_rest s) (S (c_closed s)).

(** * Scripted io.ReadCloser
    [Read(p)] hands out at most [len p] bytes of the current chunk.  With
    [r_attach] the EOF or error that follows a chunk is returned together
    with the chunk's last bytes; without it, on a call of its own. *)
Record rsrc := mkRsrc { r_rest : list ev; r_attach : bool; r_closed : nat }.

Definition rsrc_read (cap : N) (s : rsrc) : (bytes * err) * rsrc :=
  let mk r := mkRsrc r (r_attach s) (r_closed s) in
  match r_rest s with
  | [] => (([], EEof), s)
  | Eof :: r => (([], EEof), mk r)
  | Err c :: r => (([], ECode c), mk r)
  | Chunk bs :: r =>
      let out := takeN cap bs in
      let bs' := dropN cap bs in
      if negb (is_nil bs') then ((out, ENone), mk (Chunk bs' :: r))
      else if r_attach s then
        match r with
        | [] => ((out, EEof), mk [])
        | Eof :: r' => ((out, EEof), mk r')
        | Err c :: r' => ((out, ECode c), mk r')
        | Chunk _ :: _ => ((out, ENone), mk r)
        end
      else ((out, ENone), mk r)
  end.
Definition rsrc_close (s : rsrc) : rsrc := mkRsrc (r_rest s) (r_attach s) (S (r_closed s)).

(** * io.ReadFull, io.Copy, io.CopyN(io.Discard, ..) over any reader *)
Section GoStd.
  Variable S : Type.
  Variable rd : N -> S -> (bytes * err) * S.

  (** io.ReadAtLeast(r, buf, len(buf)):
      [for n < min && err == nil { nn, err = r.Read(buf[n:]); n += nn }]
      then [n >= min -> nil], [n > 0 && err == EOF -> ErrUnexpectedEOF]. *)
  Fixpoint read_full_loop (fuel : nat) (want : N) (got : bytes) (s : S) : (bytes * err) * S :=
    if want <=? lenN got then ((got, ENone), s) else
    match fuel with
    | O => ((got, EFuel), s)
    | Datatypes.S f =>
        let '((c, e), s') := rd (want - lenN got) s in
        let got' := got ++ c in
        match e with
        | ENone => read_full_loop f want got' s'
        | _ =>
            if want <=? lenN got' then ((got', ENone), s')
            else match e with
                 | EEof => ((got', if is_nil got' then EEof else EUnexp), s')
                 | _ => ((got', e), s')
                 end
        end
    end.
  Definition read_full (fuel : nat) (want : N) (s : S) := read_full_loop fuel want [] s.

  (** io.Copy(w, r) for a writer that never fails and implements neither
      ReaderFrom nor is [r] a WriterTo: 32 KiB reads; data returned together
      with an error is written before the error is looked at. *)
  Definition copy_buf : N := 32768.
  Fixpoint copy_loop (fuel : nat) (cap : N) (written : bytes) (s : S) : (bytes * err) * S :=
    match fuel with
    | O => ((written, EFuel), s)
    | Datatypes.S f =>
        let '((c, e), s') := rd cap s in
        let written' := written ++ c in
        match e with
        | ENone => copy_loop f cap written' s'
        | EEof => ((written', ENone), s')
        | _ => ((written', e), s')
        end
    end.
  Definition copy (fuel : nat) (s : S) := copy_loop fuel copy_buf [] s.

  (** io.CopyN(io.Discard, r, n): io.Discard's ReadFrom reads 8 KiB at a time
      through an io.LimitedReader; [written == n -> nil] whatever the last
      read's error was, [written < n && err == nil -> EOF]. *)
  Definition discard_buf : N := 8192.
  Fixpoint copy_n_loop (fuel : nat) (left : N) (s : S) : err * S :=
    if left =? 0 then (ENone, s) else
    match fuel with
    | O => (EFuel, s)
    | Datatypes.S f =>
        let '((c, e), s') := rd (N.min discard_buf left) s in
        let left' := left - lenN c in
        match e with
        | ENone => copy_n_loop f left' s'
        | EEof => (if left' =? 0 then ENone else EEof, s')
        | _ => (if left' =? 0 then ENone else e, s')
        end
    end.

  (** discardFromReader *)
  Definition discard_from_reader (fuel : nat) (off : Z) (s : S) : err * S :=
    if (off <? 0)%Z then (ECode 3, s) else copy_n_loop fuel (Z.to_N off) s.
End GoStd.
Arguments read_full_loop {S}. Arguments read_full {S}. Arguments copy_loop {S}. Arguments copy {S}.
Arguments copy_n_loop {S}. Arguments discard_from_reader {S}.

(** Generic chunk-reader consumers. *)
Section ChunkConsumers.
  Variable S : Type.
  Variable rd : S -> (bytes * err) * S.

  (** read chunks until the first error (io.EOF included) *)
  Fixpoint drain (fuel : nat) (out : bytes) (s : S) : (bytes * err) * S :=
    match fuel with
    | O => ((out, EFuel), s)
    | Datatypes.S f =>
        let '((c, e), s') := rd s in
        match e with
        | ENone => drain f (out ++ c) s'
        | _ => ((out, e), s')
        end
    end.

  (** [k] further reads after the stream ended: the data and error of each *)
  Fixpoint extra_reads (k : nat) (s : S) : list (bytes * err) * S :=
    match k with
    | O => ([], s)
    | Datatypes.S k' =>
        let '(r, s') := rd s in
        let '(l, s'') := extra_reads k' s' in
        (r :: l, s'')
    end.

  (** discardFromChunkReader: the rest of the chunk that straddles [off]. *)
  Fixpoint discard_from_chunk_reader (fuel : nat) (off : N) (s : S) : (bytes * err) * S :=
    if off =? 0 then (([], ENone), s) else
    match fuel with
    | O => (([], EFuel), s)
    | Datatypes.S f =>
        let '((c, e), s') := rd s in
        match e with
        | ENone => if off <? lenN c then ((dropN off c, ENone), s')
                   else discard_from_chunk_reader f (off - lenN c) s'
        | _ => (([], e), s')
        end
    end.
End ChunkConsumers.
Arguments drain {S}. Arguments extra_reads {S}. Arguments discard_from_chunk_reader {S}.
