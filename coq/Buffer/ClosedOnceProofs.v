(** C16 — every scripted source is closed exactly once.

    Generic part: a predicate [P0] of the underlying reader's state that every
    read preserves ("not yet closed") and a predicate [P1] that Close()
    establishes from it ("closed once") are carried through the decorators
    of Buffer/Convert.v; the offset reader, which closes its underlying reader
    when its construction fails and does not close it again later, is in state
    [P0] while [o_fixed = ENone] and in state [P1] otherwise.

    Special part: every consumption method of a CAS chunk-reader buffer and
    of a CAS reader buffer closes the scripted source exactly once
    ([plain_closed_once]); the unvalidated readers handed to the
    error-handling readers own a source that is closed exactly once after
    their Close() ([ucr_ok], [urd_ok]). *)
From Coq Require Import List ZArith NArith Bool Lia.
From BBS Require Import Buffer.Source Buffer.Validate Buffer.Convert Buffer.StreamProofs
  Buffer.ValidateProofs Buffer.PreserveProofs Buffer.ErrHandler.
Import ListNotations.
Open Scope N_scope.

Section MoreOverChunk.
  Variable S : Type.
  Variable rd : S -> (bytes * err) * S.
  Variable P : S -> Prop.
  Hypothesis rd_pres : forall s r s', rd s = (r, s') -> P s -> P s'.

  Lemma norm_read_pres max fuel : forall n r n',
    norm_read rd fuel max n = (r, n') -> P (n_u n) -> P (n_u n').
  Proof.
    induction fuel as [|f IH]; intros n r n' Hr Hp; cbn [norm_read] in Hr;
      destruct (negb (is_nil (n_last n)));
      try (destruct (max <? lenN (n_last n)); inv Hr; assumption);
      try (inv Hr; assumption).
    destruct (rd (n_u n)) as [[c e] u'] eqn:Hu. apply rd_pres in Hu; [|assumption].
    destruct e; try (inv Hr; assumption). eapply IH in Hr; [exact Hr|exact Hu].
  Qed.
  Lemma cb_loop_pres fuel : forall left got st r st',
    cb_loop rd fuel left got st = (r, st') -> P (cb_u st) -> P (cb_u st').
  Proof.
    induction fuel as [|f IH]; intros left got st r st' Hr Hp; cbn [cb_loop] in Hr;
      destruct (left =? 0); try (inv Hr; assumption).
    destruct (rd (cb_u st)) as [[c e] u'] eqn:Hu. apply rd_pres in Hu; [|assumption].
    destruct e; try (inv Hr; assumption). eapply IH in Hr; [exact Hr|exact Hu].
  Qed.
  Lemma cb_read_pres fuel cap st r st' :
    cb_read rd fuel cap st = (r, st') -> P (cb_u st) -> P (cb_u st').
  Proof. unfold cb_read. intros Hr Hp. eapply cb_loop_pres in Hr; [exact Hr|exact Hp]. Qed.
End MoreOverChunk.

Section MoreOverReader.
  Variable S : Type.
  Variable rd : N -> S -> (bytes * err) * S.
  Variable P : S -> Prop.
  Hypothesis rd_pres : forall cap s r s', rd cap s = (r, s') -> P s -> P s'.

  Lemma copy_loop_pres fuel : forall cap written s r s',
    copy_loop rd fuel cap written s = (r, s') -> P s -> P s'.
  Proof.
    induction fuel as [|f IH]; intros cap written s r s' Hr Hp; cbn [copy_loop] in Hr; [inv Hr; assumption|].
    destruct (rd cap s) as [[c e] s1] eqn:Hu. apply rd_pres in Hu; [|assumption].
    destruct e; try (inv Hr; assumption). eapply IH in Hr; [exact Hr|exact Hu].
  Qed.
  Lemma copy_n_loop_pres fuel : forall left s e s',
    copy_n_loop rd fuel left s = (e, s') -> P s -> P s'.
  Proof.
    induction fuel as [|f IH]; intros left s e s' Hr Hp; cbn [copy_n_loop] in Hr;
      destruct (left =? 0); try (inv Hr; assumption).
    destruct (rd (N.min discard_buf left) s) as [[c e0] s1] eqn:Hu. apply rd_pres in Hu; [|assumption].
    destruct e0; try (inv Hr; assumption). eapply IH in Hr; [exact Hr|exact Hu].
  Qed.
  Lemma discard_from_reader_pres fuel off s e s' :
    discard_from_reader rd fuel off s = (e, s') -> P s -> P s'.
  Proof.
    unfold discard_from_reader. destruct (off <? 0)%Z; [intros E; inv E; auto|apply copy_n_loop_pres].
  Qed.
  Lemma rb_read_pres fuel max st r st' :
    rb_read rd fuel max st = (r, st') -> P (rb_u st) -> P (rb_u st').
  Proof.
    unfold rb_read. intros Hr Hp. destruct (rb_err st); try (inv Hr; assumption).
    destruct (read_full rd fuel max (rb_u st)) as [[data e] u'] eqn:Hf.
    unfold read_full in Hf. eapply (read_full_loop_pres _ rd P rd_pres) in Hf; [|exact Hp].
    destruct (negb (is_nil data)); inv Hr; exact Hf.
  Qed.
End MoreOverReader.

Section OffsetOk.
  Variable S : Type.
  Variable rd : S -> (bytes * err) * S.
  Variable cl : S -> S.
  Variables P0 P1 : S -> Prop.
  Hypothesis rd_pres : forall s r s', rd s = (r, s') -> P0 s -> P0 s'.
  Hypothesis cl_ok : forall s, P0 s -> P1 (cl s).

  Definition ost_ok (o : ost S) : Prop :=
    match o_fixed o with ENone => P0 (o_u o) | _ => P1 (o_u o) end.

  Lemma offset_init_ok fuel off s : P0 s -> ost_ok (offset_init rd cl fuel off s).
  Proof.
    intros Hp. unfold offset_init, ost_ok. destruct (off <? 0)%Z; [cbn; auto|].
    destruct (discard_from_chunk_reader rd fuel (Z.to_N off) s) as [[prefix e] s'] eqn:Hd.
    eapply (discard_pres _ rd P0 rd_pres) in Hd; [|exact Hp].
    destruct e; cbn; auto.
  Qed.
  Lemma offset_read_ok o r o' : offset_read rd o = (r, o') -> ost_ok o -> ost_ok o'.
  Proof.
    unfold offset_read, ost_ok. intros Hr Hq.
    destruct (o_fixed o) eqn:Ef; try (inv Hr; rewrite Ef; exact Hq).
    destruct (is_nil (o_prefix o)); [|inv Hr; exact Hq].
    destruct (rd (o_u o)) as [x u'] eqn:Hu. inv Hr. cbn. eapply rd_pres; eassumption.
  Qed.
  Lemma offset_close_ok o : ost_ok o -> P1 (o_u (offset_close cl o)).
  Proof. unfold offset_close, ost_ok. destruct (o_fixed o); cbn; auto. Qed.

  Lemma read_at_fill_ok fuel : forall left got o r o',
    read_at_fill rd fuel left got o = (r, o') -> ost_ok o -> ost_ok o'.
  Proof.
    induction fuel as [|f IH]; intros left got o r o' Hr Hq; cbn [read_at_fill] in Hr;
      destruct (left =? 0); try (inv Hr; assumption).
    destruct (offset_read rd o) as [[c e] o1] eqn:Ho. apply offset_read_ok in Ho; [|assumption].
    destruct e; try (inv Hr; assumption). eapply IH in Hr; [exact Hr|exact Ho].
  Qed.
  Lemma read_at_cr_ok fuel plen off s r o :
    read_at_cr rd cl fuel plen off s = (r, o) -> P0 s -> P1 (o_u o).
  Proof.
    unfold read_at_cr. intros Hr Hp.
    pose proof (offset_init_ok fuel off s Hp) as H0.
    destruct (read_at_fill rd fuel plen [] (offset_init rd cl fuel off s)) as [[got e] o1] eqn:Hf.
    apply read_at_fill_ok in Hf; [|exact H0].
    destruct e; try (inv Hr; apply offset_close_ok; exact Hf).
    destruct (drain (offset_read rd) fuel [] o1) as [[x e2] o2] eqn:Hd.
    eapply (drain_pres _ (offset_read rd) ost_ok offset_read_ok) in Hd; [|exact Hf].
    inv Hr. apply offset_close_ok. exact Hd.
  Qed.
  Lemma into_writer_cr_ok fuel s r s' : into_writer_cr rd cl fuel s = (r, s') -> P0 s -> P1 s'.
  Proof.
    unfold into_writer_cr. intros Hr Hp. destruct (drain rd fuel [] s) as [[out e] s1] eqn:Hd.
    eapply (drain_pres _ rd P0 rd_pres) in Hd; [|exact Hp]. inv Hr. auto.
  Qed.
  Lemma to_byte_slice_cr_ok fuel size max s r s' :
    to_byte_slice_cr rd cl fuel size max s = (r, s') -> P0 s -> P1 s'.
  Proof.
    unfold to_byte_slice_cr. intros Hr Hp. destruct (max <? size); [inv Hr; auto|].
    destruct (drain rd fuel [] s) as [[out e] s1] eqn:Hd.
    eapply (drain_pres _ rd P0 rd_pres) in Hd; [|exact Hp]. inv Hr. auto.
  Qed.
End OffsetOk.
Arguments ost_ok {S}.

Lemma csrc_read_closed n s r s' : csrc_read s = (r, s') -> c_closed s = n -> c_closed s' = n.
Proof.
  unfold csrc_read. intros Hr Hc. destruct (c_rest s) as [|[bs|c|] rest]; inv Hr; reflexivity.
Qed.
Lemma rsrc_read_closed n cap s r s' : rsrc_read cap s = (r, s') -> r_closed s = n -> r_closed s' = n.
Proof.
  unfold rsrc_read. intros Hr Hc. destruct (r_rest s) as [|[bs|c|] rest]; try (inv Hr; reflexivity).
  destruct (negb (is_nil (dropN cap bs))); [inv Hr; reflexivity|].
  destruct (r_attach s); [|inv Hr; reflexivity].
  destruct rest as [|[bs'|c'|] rest']; inv Hr; reflexivity.
Qed.

Definition copen (s : csrc) : Prop := c_closed s = 0%nat.
Definition cclosed (s : csrc) : Prop := c_closed s = 1%nat.
Definition ucr_ok (u : ucr) : Prop :=
  match u with
  | UNorm n => ost_ok copen cclosed (n_u n)
  | URb r => r_closed (rb_u r) = 0%nat
  | UFail _ s => r_closed s = 1%nat
  | _ => True
  end.
Definition urd_ok (u : urd) : Prop :=
  match u with
  | RCb c => ost_ok copen cclosed (cb_u c)
  | RRaw s => r_closed s = 0%nat
  | RFail _ s => r_closed s = 1%nat
  | _ => True
  end.
Definition all_one (l : list nat) : Prop := Forall (fun n => n = 1%nat) l.

Lemma csrc_open_pres s r s' : csrc_read s = (r, s') -> copen s -> copen s'.
Proof. apply csrc_read_closed. Qed.
Lemma csrc_close_ok s : copen s -> cclosed (csrc_close s).
Proof. unfold copen, cclosed. cbn. lia. Qed.

Lemma ucr_open_ok fuel b off : ucr_ok (ucr_open fuel b off).
Proof.
  destruct b as [evs|evs a|d|c]; cbn [ucr_open ucr_ok].
  - cbn [n_u]. apply (offset_init_ok _ csrc_read csrc_close copen cclosed csrc_open_pres csrc_close_ok). reflexivity.
  - destruct (discard_from_reader rsrc_read fuel (Z.of_N off) (mkRsrc evs a 0)) as [e s] eqn:Hd.
    pose proof (discard_from_reader_pres _ _ _ (fun cap => rsrc_read_closed 0 cap) fuel _ _ _ _ Hd eq_refl) as Hs.
    destruct e; cbn; try rewrite Hs; auto.
  - destruct (off <=? lenN d); exact I.
  - exact I.
Qed.
Lemma ucr_read_ok fuel max u r u' : ucr_read fuel max u = (r, u') -> ucr_ok u -> ucr_ok u'.
Proof.
  destruct u as [n|rb|d|e|e s]; cbn [ucr_read ucr_ok]; intros Hr Hk.
  - destruct (norm_read (offset_read csrc_read) fuel max n) as [x n'] eqn:Hn. inv Hr.
    exact (norm_read_pres _ _ _ (offset_read_ok _ csrc_read copen cclosed csrc_open_pres) max fuel n _ _ Hn Hk).
  - destruct (rb_read rsrc_read fuel max rb) as [x rb'] eqn:Hn. inv Hr.
    exact (rb_read_pres _ _ _ (fun cap => rsrc_read_closed 0 cap) fuel max rb _ _ Hn Hk).
  - destruct (bs_read max d) as [x d']. inv Hr. exact I.
  - inv Hr. exact I.
  - inv Hr. exact Hk.
Qed.
Lemma ucr_close_ok u : ucr_ok u -> all_one (ucr_closes (ucr_close u)).
Proof.
  destruct u as [n|rb|d|e|e s]; cbn [ucr_ok ucr_close ucr_closes]; intros Hk; unfold all_one.
  - constructor; [|constructor]. cbn [norm_close n_u].
    apply (offset_close_ok _ csrc_close copen cclosed csrc_close_ok). exact Hk.
  - constructor; [|constructor]. cbn. rewrite Hk. reflexivity.
  - constructor.
  - constructor.
  - constructor; [exact Hk|constructor].
Qed.

Lemma urd_open_ok fuel b off : urd_ok (urd_open fuel b off).
Proof.
  destruct b as [evs|evs a|d|c]; cbn [urd_open urd_ok].
  - cbn [cb_u]. apply (offset_init_ok _ csrc_read csrc_close copen cclosed csrc_open_pres csrc_close_ok). reflexivity.
  - destruct (discard_from_reader rsrc_read fuel (Z.of_N off) (mkRsrc evs a 0)) as [e s] eqn:Hd.
    pose proof (discard_from_reader_pres _ _ _ (fun cap => rsrc_read_closed 0 cap) fuel _ _ _ _ Hd eq_refl) as Hs.
    destruct e; cbn; try rewrite Hs; auto.
  - destruct (off <=? lenN d); exact I.
  - exact I.
Qed.
Lemma urd_read_ok fuel cap u r u' : urd_read fuel cap u = (r, u') -> urd_ok u -> urd_ok u'.
Proof.
  destruct u as [c|s|d|e|e s]; cbn [urd_read urd_ok]; intros Hr Hk.
  - destruct (cb_read (offset_read csrc_read) fuel cap c) as [x c'] eqn:Hn. inv Hr.
    exact (cb_read_pres _ _ _ (offset_read_ok _ csrc_read copen cclosed csrc_open_pres) fuel cap c _ _ Hn Hk).
  - destruct (rsrc_read cap s) as [x s'] eqn:Hn. inv Hr.
    exact (rsrc_read_closed 0 cap s _ _ Hn Hk).
  - destruct (bb_read cap d) as [x d']. inv Hr. exact I.
  - inv Hr. exact I.
  - inv Hr. exact Hk.
Qed.
Lemma urd_close_ok u : urd_ok u -> all_one (urd_closes (urd_close u)).
Proof.
  destruct u as [c|s|d|e|e s]; cbn [urd_ok urd_close urd_closes]; intros Hk; unfold all_one.
  - constructor; [|constructor]. cbn [cb_close cb_u].
    apply (offset_close_ok _ csrc_close copen cclosed csrc_close_ok). exact Hk.
  - constructor; [|constructor]. cbn. rewrite Hk. reflexivity.
  - constructor.
  - constructor.
  - constructor; [exact Hk|constructor].
Qed.

Section Plain.
  Variable H : bytes -> bytes.
  Variable cfg : vcfg.
  Variable fuel : nat.

  Definition vopen (st : cvs) : Prop := c_closed (v_u st) = 0%nat.
  Definition vclosed (st : cvs) : Prop := c_closed (v_u st) = 1%nat.
  Lemma cv_read_open st r st' : cv_read H cfg fuel st = (r, st') -> vopen st -> vopen st'.
  Proof.
    unfold cv_read, vopen. intros Hr Hp.
    exact (vcr_read_pres _ csrc_read copen csrc_open_pres H cfg fuel st r st' Hr Hp).
  Qed.
  Lemma cv_close_closed st : vopen st -> vclosed (cv_close st).
  Proof. unfold vopen, vclosed, cv_close. cbn. lia. Qed.

  Lemma cas_chunk_reader_closed_once evs m : o_closed (cas_chunk_reader H cfg fuel evs m) = 1%nat.
  Proof.
    assert (H0 : vopen (cv_init cfg evs)) by reflexivity.
    pose proof cv_read_open as Hrd. pose proof cv_close_closed as Hcl.
    destruct m; cbn [cas_chunk_reader].
    - destruct (to_byte_slice_cr _ _ _ _ _ _) as [[out e] st] eqn:Ht.
      eapply (to_byte_slice_cr_ok _ _ _ vopen vclosed Hrd Hcl) in Ht; [exact Ht|exact H0].
    - destruct (into_writer_cr _ _ _ _) as [[out e] st] eqn:Ht.
      eapply (into_writer_cr_ok _ _ _ vopen vclosed Hrd Hcl) in Ht; [exact Ht|exact H0].
    - destruct (read_at_cr _ _ _ _ _ _) as [[out e] o] eqn:Ht.
      eapply (read_at_cr_ok _ _ _ vopen vclosed Hrd Hcl) in Ht; [exact Ht|exact H0].
    - destruct (valid_offset (g_size cfg) off); [|cbn [o_closed cv_out rv_out]; apply Hcl; exact H0].
      pose proof (offset_init_ok _ (cv_read H cfg fuel) (cv_close) vopen vclosed Hrd Hcl fuel off _ H0) as Hi.
      assert (Hor := offset_read_ok _ (cv_read H cfg fuel) vopen vclosed Hrd).
      pose proof (norm_read_pres _ _ (ost_ok vopen vclosed) Hor max fuel) as Hnr.
      destruct (drain _ fuel [] _) as [[out e] n] eqn:Hd.
      eapply (drain_pres _ _ (fun n => ost_ok vopen vclosed (n_u n)) Hnr) in Hd; [|exact Hi].
      destruct (extra_reads _ extra n) as [ex n2] eqn:He.
      eapply (extra_reads_pres _ _ (fun n => ost_ok vopen vclosed (n_u n)) Hnr) in He; [|exact Hd].
      cbn [o_closed cv_out rv_out]. apply (offset_close_ok _ cv_close vopen vclosed Hcl). exact He.
    - pose proof (cb_read_pres _ _ vopen Hrd fuel) as Hcb.
      destruct (rconsume _ fuel caps _ [] _) as [[out e] s] eqn:Hc.
      eapply (rconsume_pres _ _ (fun s => vopen (cb_u s)) Hcb) in Hc; [|exact H0].
      destruct (rextra _ extra _ s) as [ex s2] eqn:He.
      eapply (rextra_pres _ _ (fun s => vopen (cb_u s)) Hcb) in He; [|exact Hc].
      cbn [o_closed cv_out rv_out]. apply Hcl. exact He.
    - destruct (to_byte_slice_cr _ _ _ _ _ _) as [r st] eqn:Ht.
      eapply (to_byte_slice_cr_ok _ _ _ vopen vclosed Hrd Hcl) in Ht; [|exact H0].
      unfold clone_copy_of. destruct (snd r); exact Ht.
    - cbn [o_closed cv_out rv_out]. apply Hcl. exact H0.
  Qed.

  Definition ropen (st : rvs) : Prop := r_closed (v_u st) = 0%nat.
  Lemma rv_read_open cap st r st' : rv_read H cfg fuel cap st = (r, st') -> ropen st -> ropen st'.
  Proof.
    unfold rv_read, ropen. intros Hr Hp.
    exact (vr_read_pres _ rsrc_read (fun s => r_closed s = 0%nat)
             (fun cap0 s0 r0 s0' => rsrc_read_closed 0 cap0 s0 r0 s0') H cfg fuel cap st r st' Hr Hp).
  Qed.
  Lemma rv_close_closed st : ropen st -> r_closed (v_u (rv_close st)) = 1%nat.
  Proof. unfold ropen, rv_close. cbn. lia. Qed.

  Lemma to_byte_slice_r_closed max st0 r st :
    to_byte_slice_r H cfg fuel max st0 = (r, st) -> ropen st0 -> r_closed (v_u st) = 1%nat.
  Proof.
    unfold to_byte_slice_r. intros Hr Hp.
    destruct (max <? g_size cfg); [inv Hr; apply rv_close_closed; exact Hp|].
    destruct (0 <? g_size cfg).
    - destruct (read_full _ fuel (g_size cfg) st0) as [[data e] st1] eqn:Hf. unfold read_full in Hf.
      eapply (read_full_loop_pres _ _ ropen rv_read_open) in Hf; [|exact Hp].
      inv Hr. apply rv_close_closed. exact Hf.
    - destruct (rv_read H cfg fuel 0 st0) as [[x e] st1] eqn:Hf. apply rv_read_open in Hf; [|exact Hp].
      inv Hr. apply rv_close_closed. exact Hf.
  Qed.

  Lemma cas_reader_closed_once evs attach m : o_closed (cas_reader H cfg fuel evs attach m) = 1%nat.
  Proof.
    assert (H0 : ropen (rv_init cfg evs attach)) by reflexivity.
    pose proof rv_read_open as Hrd. pose proof rv_close_closed as Hcl.
    destruct m; cbn [cas_reader].
    - destruct (to_byte_slice_r _ _ _ _ _) as [[out e] st] eqn:Ht.
      eapply to_byte_slice_r_closed in Ht; [exact Ht|exact H0].
    - destruct (copy _ fuel _) as [[out e] st] eqn:Ht. unfold copy in Ht.
      eapply (copy_loop_pres _ _ ropen Hrd) in Ht; [|exact H0]. cbn [o_closed cv_out rv_out]. apply Hcl. exact Ht.
    - destruct (discard_from_reader _ fuel off _) as [e0 st] eqn:Hd.
      eapply (discard_from_reader_pres _ _ ropen Hrd) in Hd; [|exact H0].
      destruct e0; try (cbn [o_closed cv_out rv_out]; apply Hcl; exact Hd).
      destruct (read_full _ fuel plen st) as [[got e] st1] eqn:Hf. unfold read_full in Hf.
      eapply (read_full_loop_pres _ _ ropen Hrd) in Hf; [|exact Hd].
      destruct e; try (cbn [o_closed cv_out rv_out]; apply Hcl; exact Hf).
      destruct (copy _ fuel st1) as [[x e2] st2] eqn:Hc. unfold copy in Hc.
      eapply (copy_loop_pres _ _ ropen Hrd) in Hc; [|exact Hf].
      destruct e2; cbn [o_closed cv_out rv_out]; apply Hcl; exact Hc.
    - destruct (valid_offset (g_size cfg) off); [|cbn [o_closed cv_out rv_out]; apply Hcl; exact H0].
      destruct (discard_from_reader _ fuel off _) as [e0 st] eqn:Hd.
      eapply (discard_from_reader_pres _ _ ropen Hrd) in Hd; [|exact H0].
      destruct e0; try (cbn [o_closed cv_out rv_out]; apply Hcl; exact Hd).
      pose proof (rb_read_pres _ _ ropen Hrd fuel max) as Hrb.
      destruct (drain _ fuel [] _) as [[out e] s] eqn:Hdr.
      eapply (drain_pres _ _ (fun s => ropen (rb_u s)) Hrb) in Hdr; [|exact Hd].
      destruct (extra_reads _ extra s) as [ex s2] eqn:He.
      eapply (extra_reads_pres _ _ (fun s => ropen (rb_u s)) Hrb) in He; [|exact Hdr].
      cbn [o_closed cv_out rv_out]. apply Hcl. exact He.
    - destruct (rconsume _ fuel caps _ [] _) as [[out e] st] eqn:Hc.
      eapply (rconsume_pres _ _ ropen Hrd) in Hc; [|exact H0].
      destruct (rextra _ extra _ st) as [ex st2] eqn:He.
      eapply (rextra_pres _ _ ropen Hrd) in He; [|exact Hc].
      cbn [o_closed cv_out rv_out]. apply Hcl. exact He.
    - destruct (to_byte_slice_r _ _ _ _ _) as [r st] eqn:Ht.
      eapply to_byte_slice_r_closed in Ht; [|exact H0].
      unfold clone_copy_of. destruct (snd r); exact Ht.
    - cbn [o_closed cv_out rv_out]. apply Hcl. exact H0.
  Qed.

  Theorem plain_closed_once b m : all_one (closes_of b (plain H cfg fuel b m)).
  Proof.
    destruct b as [evs|evs a|d|c]; cbn [closes_of plain]; unfold all_one.
    - constructor; [apply cas_chunk_reader_closed_once|constructor].
    - constructor; [apply cas_reader_closed_once|constructor].
    - constructor.
    - constructor.
  Qed.
End Plain.
