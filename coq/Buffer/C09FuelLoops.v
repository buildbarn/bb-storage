(** C09 — progress laws for readers and the fuel each consumption loop
    needs.

    A reader [(St, rd)] makes progress w.r.t. a measure [mu : St -> nat] under
    an invariant [I] when no read yields the out-of-fuel marker, a read never
    increases the measure, and a read that does not end the stream strictly
    decreases it.  For chunk readers the decrease is weighted by [wt c] of the
    chunk handed out ([wt = length]: the re-chunking decorators keep the rest
    of a chunk, and that rest must be paid for by the underlying measure).
    Every loop of Source.v / Validate.v / Convert.v over such a reader returns
    something other than [EFuel] as soon as its fuel exceeds the measure, and
    every decorator maps a progressing reader to a progressing reader (its own
    inner loops included: the invariant carries "measure < inner fuel"). *)
From Coq Require Import List ZArith NArith Bool Lia.
From BBS Require Import Buffer.Source Buffer.Validate Buffer.Convert Buffer.StreamProofs Buffer.ValidateProofs
  Buffer.ValidateReaderProofs.
Import ListNotations.
Open Scope nat_scope.

Ltac fin0 := rsplit; auto; try congruence; try lia; try (intros; congruence); try (intros; lia).
Ltac fin := solve [fin0].
Ltac vsimp := cbn [v_u v_rem v_acc v_err v_cbs v_set_u v_set_err v_notify v_fail fst snd] in *.

Lemma len_take_drop n l : length (takeN n l) + length (dropN n l) = length l.
Proof. rewrite <- app_length, takeN_dropN. reflexivity. Qed.
Lemma len_dropN_le n l : length (dropN n l) <= length l.
Proof. pose proof (len_take_drop n l). lia. Qed.
Lemma takeN_cons_nonnil n x l : (1 <= n)%N -> takeN n (x :: l) <> [].
Proof. intros Hn. cbn [takeN]. destruct (n =? 0)%N eqn:E; [apply N.eqb_eq in E; lia|discriminate]. Qed.
Lemma len_dropN_lt n l : (1 <= n)%N -> l <> [] -> length (dropN n l) < length l.
Proof.
  intros Hn Hl. destruct l as [|x l]; [congruence|].
  pose proof (len_take_drop n (x :: l)) as L. pose proof (takeN_cons_nonnil n x l Hn) as T.
  destruct (takeN n (x :: l)); [congruence|]. cbn [length] in *. lia.
Qed.
Lemma nonnil_length (l : bytes) : l <> [] -> 0 < length l.
Proof. destruct l; [congruence|cbn; lia]. Qed.
Lemma lenN_lt_length (a b : bytes) : (lenN a < lenN b)%N -> length a < length b.
Proof. unfold lenN. lia. Qed.

Section ChunkLaw.
  Context {St : Type}.
  Variable wt : bytes -> nat.
  Variable rd : St -> (bytes * err) * St.
  Variable I : St -> Prop.
  Variable mu : St -> nat.

  Definition cprog : Prop := forall s c e s', I s -> rd s = ((c, e), s') ->
    e <> EFuel /\ I s' /\ mu s' <= mu s /\ (e = ENone -> mu s' + wt c < mu s).

  Hypothesis P : cprog.

  Lemma drain_fuel : forall fuel out s o e s', I s -> mu s < fuel ->
    drain rd fuel out s = ((o, e), s') -> e <> EFuel /\ I s' /\ mu s' <= mu s.
  Proof.
    induction fuel as [|f IH]; intros out s o e s' Hi Hm Hd; [lia|].
    cbn [drain] in Hd. destruct (rd s) as [[c e1] s1] eqn:Hr. cbn beta iota in Hd.
    destruct (P _ _ _ _ Hi Hr) as (Hne & Hi1 & Hle & Hlt).
    destruct e1; try (inv Hd; fin).
    specialize (Hlt eq_refl). destruct (IH _ _ _ _ _ Hi1 ltac:(lia) Hd) as (A & B & C). fin.
  Qed.

  Variable H : bytes -> bytes.
  Variable cfg : vcfg.

  Lemma finalize_loop_fuel : forall fuel st e st', I (v_u st) -> mu (v_u st) < fuel ->
    finalize_loop H cfg rd fuel st = (e, st') ->
    e <> EFuel /\ I (v_u st') /\ mu (v_u st') <= mu (v_u st) /\ v_err st' = v_err st.
  Proof.
    induction fuel as [|f IH]; intros st e st' Hi Hm Hf; [lia|].
    cbn [finalize_loop] in Hf. destruct (rd (v_u st)) as [[c e1] u1] eqn:Hr. cbn beta iota in Hf.
    destruct (P _ _ _ _ Hi Hr) as (Hne & Hi1 & Hle & Hlt).
    destruct e1; vsimp.
    - specialize (Hlt eq_refl). destruct (v_rem st <? lenN c)%N.
      + inv Hf. vsimp. fin.
      + apply IH in Hf; vsimp; [|assumption|lia]. destruct Hf as (A & B & C & D). fin.
    - destruct (bytes_eqb (g_hash cfg) (H (v_acc st))); inv Hf; vsimp; fin.
    - inv Hf. vsimp. fin.
    - inv Hf. vsimp. fin.
    - congruence.
  Qed.

  Lemma maybe_finalize_fuel fuel st e st' : I (v_u st) -> mu (v_u st) < fuel ->
    maybe_finalize H cfg rd fuel st = (e, st') ->
    e <> EFuel /\ I (v_u st') /\ mu (v_u st') <= mu (v_u st) /\ v_err st' = v_err st.
  Proof.
    unfold maybe_finalize. intros Hi Hm Hf. destruct (0 <? v_rem st)%N.
    - inv Hf. fin.
    - exact (finalize_loop_fuel _ _ _ _ Hi Hm Hf).
  Qed.

  Lemma vcr_do_read_fuel fuel st c e st' : I (v_u st) -> mu (v_u st) < fuel ->
    vcr_do_read H cfg rd fuel st = ((c, e), st') ->
    e <> EFuel /\ I (v_u st') /\ mu (v_u st') <= mu (v_u st) /\ v_err st' = v_err st /\
    (e = ENone -> mu (v_u st') + wt c < mu (v_u st)).
  Proof.
    unfold vcr_do_read. intros Hi Hm Hd.
    destruct (maybe_finalize H cfg rd fuel st) as [e0 st0] eqn:Hf.
    destruct (maybe_finalize_fuel _ _ _ _ Hi Hm Hf) as (A & B & C & D).
    destruct e0; try (inv Hd; fin).
    destruct (rd (v_u st0)) as [[ch e1] u1] eqn:Hr. cbn beta iota in Hd.
    destruct (P _ _ _ _ B Hr) as (Hne & Hi1 & Hle & Hlt).
    destruct e1; vsimp.
    - specialize (Hlt eq_refl). destruct (v_rem st0 <? lenN ch)%N; inv Hd; vsimp; fin.
    - inv Hd. vsimp. fin.
    - inv Hd. vsimp. fin.
    - inv Hd. vsimp. fin.
    - congruence.
  Qed.

  Definition Iv (fuel : nat) (st : vst St) : Prop := I (v_u st) /\ v_err st <> EFuel /\ mu (v_u st) < fuel.
  Definition muv (st : vst St) : nat := mu (v_u st).
End ChunkLaw.

Lemma cprog_weak {St} wt (rd : St -> (bytes * err) * St) I mu :
  cprog wt rd I mu -> cprog (fun _ => 0) rd I mu.
Proof. intros P s c e s' Hi Hr. destruct (P _ _ _ _ Hi Hr) as (A & B & C & D). fin0. intros X. specialize (D X). lia. Qed.

Lemma vcr_read_prog {St} wt (rd : St -> (bytes * err) * St) I mu H cfg fuel :
  cprog wt rd I mu -> cprog wt (vcr_read H cfg rd fuel) (Iv I mu fuel) (muv mu).
Proof.
  intros P st c e st' (Hi & Hve & Hm) Hr. unfold Iv, muv.
  destruct (err_none_dec (v_err st)) as [Ev|Ev];
    [|rewrite (vcr_read_failed H cfg St rd fuel st Ev) in Hr; injection Hr as <- <- <-; fin].
  unfold vcr_read in Hr. rewrite Ev in Hr.
  destruct (vcr_do_read H cfg rd fuel st) as [[ch e1] st1] eqn:Hd.
  destruct (vcr_do_read_fuel wt rd I mu P H cfg _ _ _ _ _ Hi Hm Hd) as (A & B & C & D & E).
  destruct e1; try (inv Hr; vsimp; fin).
  destruct (maybe_finalize H cfg rd fuel st1) as [e2 st2] eqn:Hf.
  destruct (maybe_finalize_fuel wt rd I mu P H cfg fuel _ _ _ B ltac:(lia) Hf) as (A2 & B2 & C2 & D2).
  specialize (E eq_refl).
  destruct e2; inv Hr; vsimp; fin.
Qed.

Definition pfx (p : bytes) : nat := if is_nil p then 0 else S (length p).

Section Offset.
  Context {St : Type}.
  Variable rd : St -> (bytes * err) * St.
  Variable cl : St -> St.
  Variable I : St -> Prop.
  Variable mu : St -> nat.
  Definition Io (o : ost St) : Prop := I (o_u o) /\ o_fixed o <> EFuel.
  Definition muo (o : ost St) : nat := mu (o_u o) + pfx (o_prefix o).

  (** for any weight that dropping bytes does not increase: the kept part of the
      straddling chunk counts one more than its weight (the next read hands it out) *)
  Section Weight.
    Variable wt : bytes -> nat.
    Hypothesis Hwt : forall off c, wt (dropN off c) <= wt c.
    Hypothesis P : cprog wt rd I mu.
    Hypothesis Hcl : forall s, I s -> I (cl s) /\ mu (cl s) <= mu s.

    Definition pfw (p : bytes) : nat := if is_nil p then 0 else S (wt p).
    Definition muow (o : ost St) : nat := mu (o_u o) + pfw (o_prefix o).

    Lemma discard_cr_w : forall fuel off s p e s', I s -> mu s < fuel ->
      discard_from_chunk_reader rd fuel off s = ((p, e), s') ->
      e <> EFuel /\ I s' /\ mu s' + pfw p <= mu s.
    Proof.
      induction fuel as [|f IH]; intros off s p e s' Hi Hm Hd; [lia|].
      cbn [discard_from_chunk_reader] in Hd.
      destruct (off =? 0)%N. { inv Hd. change (pfw []) with 0. fin. }
      destruct (rd s) as [[c e1] s1] eqn:Hr. cbn beta iota in Hd.
      destruct (P _ _ _ _ Hi Hr) as (Hne & Hi1 & Hle & Hlt).
      destruct e1; try (inv Hd; change (pfw []) with 0; fin).
      specialize (Hlt eq_refl).
      destruct (off <? lenN c)%N.
      - inv Hd. rsplit; auto; try congruence. unfold pfw.
        pose proof (Hwt off c). destruct (is_nil (dropN off c)); lia.
      - destruct (IH _ _ _ _ _ Hi1 ltac:(lia) Hd) as (A & B & C). fin.
    Qed.

    Lemma offset_init_w fuel off s : I s -> mu s < fuel ->
      Io (offset_init rd cl fuel off s) /\ muow (offset_init rd cl fuel off s) <= mu s.
    Proof.
      intros Hi Hm. unfold offset_init. destruct (off <? 0)%Z.
      - unfold Io, muow. cbn [o_u o_prefix o_fixed]. change (pfw []) with 0. destruct (Hcl _ Hi). fin.
      - destruct (discard_from_chunk_reader rd fuel (Z.to_N off) s) as [[p e] s'] eqn:Hd.
        destruct (discard_cr_w _ _ _ _ _ _ Hi Hm Hd) as (A & B & C).
        destruct (Hcl _ B) as [B1 B2].
        destruct e; unfold Io, muow; cbn [o_u o_prefix o_fixed]; change (pfw []) with 0; fin.
    Qed.

    Lemma offset_read_w : cprog wt (offset_read rd) Io muow.
    Proof.
      intros o c e o' (Hi & Hf) Hr. unfold offset_read in Hr. unfold Io, muow.
      destruct (o_fixed o) eqn:Ef; try (inv Hr; rewrite Ef; fin).
      destruct (is_nil (o_prefix o)) eqn:En.
      - destruct (rd (o_u o)) as [[c1 e1] u1] eqn:Hr1. inv Hr.
        destruct (P _ _ _ _ Hi Hr1) as (A & B & C & D). cbn [o_u o_prefix o_fixed]. change (pfw []) with 0.
        unfold pfw. rewrite En. fin0. intros X. specialize (D X). lia.
      - inv Hr. cbn [o_u o_prefix o_fixed]. change (pfw []) with 0. unfold pfw. rewrite En. fin.
    Qed.

    Lemma offset_close_w o : Io o -> Io (offset_close cl o) /\ muow (offset_close cl o) <= muow o.
    Proof.
      intros (Hi & Hf). unfold offset_close, Io, muow.
      destruct (o_fixed o) eqn:Ef; cbn [o_u o_prefix o_fixed]; rewrite ?Ef; fin0.
      all: destruct (Hcl _ Hi); fin.
    Qed.
  End Weight.

  Hypothesis P : cprog (@length N) rd I mu.
  Hypothesis Hcl : forall s, I s -> I (cl s) /\ mu (cl s) <= mu s.

  Lemma offset_init_fuel fuel off s : I s -> mu s < fuel ->
    Io (offset_init rd cl fuel off s) /\ muo (offset_init rd cl fuel off s) <= mu s.
  Proof. exact (offset_init_w _ (fun off c => len_dropN_le off c) P Hcl fuel off s). Qed.

  Lemma offset_read_prog : cprog (@length N) (offset_read rd) Io muo.
  Proof. exact (offset_read_w _ P). Qed.

  Lemma offset_close_inv o : Io o -> Io (offset_close cl o) /\ muo (offset_close cl o) <= muo o.
  Proof. exact (offset_close_w _ Hcl o). Qed.

  Lemma read_at_fill_fuel : forall fuel left got o g e o', Io o -> muo o < fuel ->
    read_at_fill rd fuel left got o = ((g, e), o') -> e <> EFuel /\ Io o' /\ muo o' <= muo o.
  Proof.
    induction fuel as [|f IH]; intros left got o g e o' Hi Hm Hd; [lia|].
    cbn [read_at_fill] in Hd. destruct (left =? 0)%N. { inv Hd. fin. }
    destruct (offset_read rd o) as [[c e1] o1] eqn:Hr. cbn beta iota in Hd.
    destruct (offset_read_prog _ _ _ _ Hi Hr) as (A & B & C & D).
    destruct e1; try (inv Hd; fin).
    specialize (D eq_refl). destruct (IH _ _ _ _ _ _ B ltac:(lia) Hd) as (A1 & B1 & C1). fin.
  Qed.
End Offset.

Section Norm.
  Context {St : Type}.
  Variable rd : St -> (bytes * err) * St.
  Variable I : St -> Prop.
  Variable mu : St -> nat.
  Hypothesis P : cprog (@length N) rd I mu.
  Variable fuel : nat.
  Variable max : N.
  Hypothesis Hmax : (1 <= max)%N.

  Definition Inm (n : nst St) : Prop := I (n_u n) /\ mu (n_u n) < fuel.
  Definition mun (n : nst St) : nat := mu (n_u n) + length (n_last n).

  Lemma norm_read_eq f n : norm_read rd f max n =
    if negb (is_nil (n_last n)) then
      if (max <? lenN (n_last n))%N
      then ((takeN max (n_last n), ENone), mkNst (n_u n) (dropN max (n_last n)))
      else ((n_last n, ENone), mkNst (n_u n) [])
    else
      match f with
      | O => (([], EFuel), n)
      | Datatypes.S f =>
          let '((c, e), u') := rd (n_u n) in
          match e with
          | ENone => norm_read rd f max (mkNst u' c)
          | _ => (([], e), mkNst u' [])
          end
      end.
  Proof. destruct f; reflexivity. Qed.

  Lemma norm_read_fuel : forall f n c e n', I (n_u n) -> (mu (n_u n) < f \/ n_last n <> []) ->
    norm_read rd f max n = ((c, e), n') ->
    e <> EFuel /\ I (n_u n') /\ mu (n_u n') <= mu (n_u n) /\ mun n' <= mun n /\ (e = ENone -> mun n' < mun n).
  Proof.
    unfold mun.
    induction f as [|f IH]; intros n c e n' Hi Hm Hr; rewrite norm_read_eq in Hr;
      (destruct (n_last n) as [|x l] eqn:El; cbn [is_nil negb] in Hr;
       [|remember (x :: l) as xl eqn:Exl in *; assert (Hnn : xl <> []) by (subst xl; discriminate); clear Exl;
         pose proof (len_dropN_lt max xl Hmax Hnn);
         destruct (max <? lenN xl)%N; inv Hr; cbn [n_u n_last length] in *; fin]).
    - destruct Hm as [Hm|Hm]; [lia|congruence].
    - destruct (rd (n_u n)) as [[c1 e1] u1] eqn:Hr1. cbn beta iota in Hr.
      destruct (P _ _ _ _ Hi Hr1) as (A & B & C & D).
      destruct e1; try (inv Hr; cbn [n_u n_last length]; fin).
      specialize (D eq_refl).
      apply IH in Hr; cbn [n_u n_last] in *; [|assumption|].
      + destruct Hr as (A1 & B1 & C1 & D1 & E1). cbn [length]. fin.
      + destruct Hm as [Hm|Hm]; [left; lia|congruence].
  Qed.

  Lemma norm_read_prog : cprog (fun _ => 0) (norm_read rd fuel max) Inm mun.
  Proof.
    intros n c e n' (Hi & Hm) Hr.
    destruct (norm_read_fuel _ _ _ _ _ Hi (or_introl Hm) Hr) as (A & B & C & D & E).
    unfold Inm. fin0. intros X. specialize (E X). lia.
  Qed.
End Norm.

(** * io.Readers: a read with a buffer of at least one byte that hands out
    data or does not end the stream strictly decreases the measure *)
Section ReaderLaw.
  Context {St : Type}.
  Variable rd : N -> St -> (bytes * err) * St.
  Variable I : St -> Prop.
  Variable mu : St -> nat.

  Definition rprog : Prop := forall cap s c e s', I s -> rd cap s = ((c, e), s') ->
    e <> EFuel /\ I s' /\ mu s' <= mu s /\ ((1 <= cap)%N -> e = ENone \/ c <> [] -> mu s' < mu s).

  Hypothesis P : rprog.

  Lemma read_full_loop_eq f want got s : read_full_loop rd f want got s =
    if (want <=? lenN got)%N then ((got, ENone), s) else
    match f with
    | O => ((got, EFuel), s)
    | Datatypes.S f =>
        let '((c, e), s') := rd (want - lenN got)%N s in
        let got' := got ++ c in
        match e with
        | ENone => read_full_loop rd f want got' s'
        | _ =>
            if (want <=? lenN got')%N then ((got', ENone), s')
            else match e with
                 | EEof => ((got', if is_nil got' then EEof else EUnexp), s')
                 | _ => ((got', e), s')
                 end
        end
    end.
  Proof. destruct f; reflexivity. Qed.

  Lemma read_full_loop_fuel : forall f want got s g e s', I s -> mu s < f ->
    read_full_loop rd f want got s = ((g, e), s') ->
    e <> EFuel /\ I s' /\ mu s' <= mu s /\ (length got < length g -> mu s' < mu s) /\
    (e = ENone -> (want <= lenN g)%N).
  Proof.
    induction f as [|f IH]; intros want got s g e s' Hi Hm Hr; [lia|].
    rewrite read_full_loop_eq in Hr. destruct (want <=? lenN got)%N eqn:Ew.
    { apply N.leb_le in Ew. inv Hr. fin. }
    apply N.leb_gt in Ew.
    destruct (rd (want - lenN got)%N s) as [[c1 e1] s1] eqn:Hr1. cbn beta iota zeta in Hr.
    destruct (P _ _ _ _ _ Hi Hr1) as (A & B & C & D).
    assert (Hcap : (1 <= want - lenN got)%N) by lia. specialize (D Hcap).
    assert (Hgrow : length got < length (got ++ c1) -> mu s1 < mu s).
    { intros L. apply D. right. rewrite app_length in L. destruct c1; [cbn in L; lia|discriminate]. }
    destruct e1.
    - destruct (IH _ _ _ _ _ _ B ltac:(pose proof (D (or_introl eq_refl)); lia) Hr) as (A1 & B1 & C1 & D1 & E1).
      pose proof (D (or_introl eq_refl)). fin.
    - destruct (want <=? lenN (got ++ c1))%N eqn:Ew2;
        [apply N.leb_le in Ew2|destruct (is_nil (got ++ c1))]; inv Hr; fin.
    - destruct (want <=? lenN (got ++ c1))%N eqn:Ew2; [apply N.leb_le in Ew2|]; inv Hr; fin.
    - destruct (want <=? lenN (got ++ c1))%N eqn:Ew2; [apply N.leb_le in Ew2|]; inv Hr; fin.
    - congruence.
  Qed.

  Lemma read_full_fuel fuel want s g e s' : I s -> mu s < fuel ->
    read_full rd fuel want s = ((g, e), s') ->
    e <> EFuel /\ I s' /\ mu s' <= mu s /\ (g <> [] -> mu s' < mu s) /\ (e = ENone -> (want <= lenN g)%N).
  Proof.
    unfold read_full. intros Hi Hm Hr.
    destruct (read_full_loop_fuel _ _ _ _ _ _ _ Hi Hm Hr) as (A & B & C & D & E). fin0.
    intros X. apply D. cbn [length]. apply nonnil_length. exact X.
  Qed.

  Lemma copy_loop_fuel : forall f cap out s o e s', (1 <= cap)%N -> I s -> mu s < f ->
    copy_loop rd f cap out s = ((o, e), s') -> e <> EFuel /\ I s' /\ mu s' <= mu s.
  Proof.
    induction f as [|f IH]; intros cap out s o e s' Hcap Hi Hm Hr; [lia|].
    cbn [copy_loop] in Hr. destruct (rd cap s) as [[c1 e1] s1] eqn:Hr1. cbn beta iota zeta in Hr.
    destruct (P _ _ _ _ _ Hi Hr1) as (A & B & C & D). specialize (D Hcap).
    destruct e1; try (inv Hr; fin).
    pose proof (D (or_introl eq_refl)).
    destruct (IH _ _ _ _ _ _ Hcap B ltac:(lia) Hr) as (A1 & B1 & C1). fin.
  Qed.

  Lemma copy_fuel fuel s o e s' : I s -> mu s < fuel ->
    copy rd fuel s = ((o, e), s') -> e <> EFuel /\ I s' /\ mu s' <= mu s.
  Proof. unfold copy. apply copy_loop_fuel. unfold copy_buf. lia. Qed.

  Lemma copy_n_loop_eq f left s : copy_n_loop rd f left s =
    if (left =? 0)%N then (ENone, s) else
    match f with
    | O => (EFuel, s)
    | Datatypes.S f =>
        let '((c, e), s') := rd (N.min discard_buf left) s in
        let left' := (left - lenN c)%N in
        match e with
        | ENone => copy_n_loop rd f left' s'
        | EEof => (if (left' =? 0)%N then ENone else EEof, s')
        | _ => (if (left' =? 0)%N then ENone else e, s')
        end
    end.
  Proof. destruct f; reflexivity. Qed.

  Lemma copy_n_loop_fuel : forall f left s e s', I s -> mu s < f ->
    copy_n_loop rd f left s = (e, s') -> e <> EFuel /\ I s' /\ mu s' <= mu s.
  Proof.
    induction f as [|f IH]; intros left s e s' Hi Hm Hr; [lia|].
    rewrite copy_n_loop_eq in Hr. destruct (left =? 0)%N eqn:E0. { inv Hr. fin. }
    apply N.eqb_neq in E0.
    destruct (rd (N.min discard_buf left) s) as [[c1 e1] s1] eqn:Hr1. cbn beta iota zeta in Hr.
    destruct (P _ _ _ _ _ Hi Hr1) as (A & B & C & D).
    assert (Hcap : (1 <= N.min discard_buf left)%N) by (unfold discard_buf; lia). specialize (D Hcap).
    destruct e1; try (destruct (left - lenN c1 =? 0)%N; inv Hr; fin).
    pose proof (D (or_introl eq_refl)).
    destruct (IH _ _ _ _ B ltac:(lia) Hr) as (A1 & B1 & C1). fin.
  Qed.

  Lemma discard_from_reader_fuel fuel off s e s' : I s -> mu s < fuel ->
    discard_from_reader rd fuel off s = (e, s') -> e <> EFuel /\ I s' /\ mu s' <= mu s.
  Proof.
    unfold discard_from_reader. intros Hi Hm Hr. destruct (off <? 0)%Z.
    - inv Hr. fin.
    - exact (copy_n_loop_fuel _ _ _ _ _ Hi Hm Hr).
  Qed.

  Lemma rconsume_fuel : forall f caps lastcap out s o e s',
    Forall (fun c => (1 <= c)%N) caps -> (1 <= lastcap)%N -> I s -> mu s < f ->
    rconsume rd f caps lastcap out s = ((o, e), s') -> e <> EFuel /\ I s' /\ mu s' <= mu s.
  Proof.
    induction f as [|f IH]; intros caps lastcap out s o e s' Hcaps Hlast Hi Hm Hr; [lia|].
    cbn [rconsume] in Hr. destruct (rd (hd lastcap caps) s) as [[c1 e1] s1] eqn:Hr1. cbn beta iota zeta in Hr.
    destruct (P _ _ _ _ _ Hi Hr1) as (A & B & C & D).
    assert (Hcap : (1 <= hd lastcap caps)%N) by (destruct Hcaps; cbn [hd]; assumption). specialize (D Hcap).
    assert (Htl : Forall (fun c => (1 <= c)%N) (tl caps)) by (destruct Hcaps; cbn [tl]; auto).
    destruct e1; try (inv Hr; fin).
    pose proof (D (or_introl eq_refl)).
    destruct (IH _ _ _ _ _ _ _ Htl Hlast B ltac:(lia) Hr) as (A1 & B1 & C1). fin.
  Qed.

End ReaderLaw.

Ltac inv' H := cbn beta iota zeta in H; inv H.

Lemma vr_do_read_fuel {St} (rd : N -> St -> (bytes * err) * St) I mu H cfg fuel : rprog rd I mu ->
  forall cap st c e st', I (v_u st) -> mu (v_u st) < fuel ->
  vr_do_read H cfg rd fuel cap st = ((c, e), st') ->
  e <> EFuel /\ I (v_u st') /\ mu (v_u st') <= mu (v_u st) /\ v_err st' = v_err st /\
  ((1 <= cap)%N -> e = ENone \/ c <> [] -> mu (v_u st') < mu (v_u st)).
Proof.
  intros P cap st c e st' Hi Hm Hr.
  pose proof (vr_do_read_shape H cfg _ rd fuel cap st c e st' Hr) as Hsh.
  destruct (rd cap (v_u st)) as [[d re] u1] eqn:Hrd. destruct (read_full rd fuel 1 u1) as [[fin_ fe] u2] eqn:Hrf.
  destruct Hsh as (Hve & Hc & Hen & Hvia).
  destruct (P _ _ _ _ _ Hi Hrd) as (A & B & C & D).
  assert (Hdec : (1 <= cap)%N -> e = ENone \/ c <> [] -> mu u1 < mu (v_u st)).
  { intros Hcap Hx. apply D; [exact Hcap|]. destruct Hx as [Hx|Hx]; [left; auto|right].
    destruct Hc as [-> | ->]; congruence. }
  destruct Hvia as [(-> & He)|(-> & -> & He)].
  - rsplit; auto. destruct He as [->|[->| ->]]; congruence.
  - (* the one-byte io.ReadFull ran as well *)
    destruct (read_full_fuel rd I mu P fuel _ _ _ _ _ B ltac:(lia) Hrf) as (A2 & B2 & C2 & _ & _).
    rsplit; auto; try lia.
    + destruct He as [[-> _]|[->| ->]]; congruence.
    + intros Hcap Hx. specialize (Hdec Hcap Hx). lia.
Qed.

Lemma vr_read_prog {St} (rd : N -> St -> (bytes * err) * St) I mu H cfg fuel :
  rprog rd I mu -> rprog (vr_read H cfg rd fuel) (Iv I mu fuel) (muv mu).
Proof.
  intros P cap st c e st' (Hi & Hve & Hm) Hr. unfold Iv, muv.
  destruct (err_none_dec (v_err st)) as [Ev|Ev].
  2: { rewrite (vr_read_failed H cfg St rd fuel cap st Ev) in Hr. injection Hr as <- <- <-.
       rsplit; auto; try lia. intros _ [X|X]; congruence. }
  unfold vr_read in Hr. rewrite Ev in Hr.
  destruct (vr_do_read H cfg rd fuel cap st) as [[d e1] st1] eqn:Hd. inv' Hr.
  destruct (vr_do_read_fuel rd I mu H cfg fuel P _ _ _ _ _ Hi Hm Hd) as (A & B & C & D & E). vsimp. fin.
Qed.

Section Rb.
  Context {St : Type}.
  Variable rd : N -> St -> (bytes * err) * St.
  Variable I : St -> Prop.
  Variable mu : St -> nat.
  Hypothesis P : rprog rd I mu.
  Variable fuel : nat.
  Variable max : N.
  Hypothesis Hmax : (1 <= max)%N.

  Definition Irb (st : rbst St) : Prop := I (rb_u st) /\ rb_err st <> EFuel /\ mu (rb_u st) < fuel.
  Definition murb (st : rbst St) : nat := mu (rb_u st) + (if is_none (rb_err st) then 1 else 0).

  Lemma rb_read_prog : cprog (fun _ => 0) (rb_read rd fuel max) Irb murb.
  Proof.
    intros st c e st' (Hi & He & Hm) Hr. unfold rb_read in Hr. unfold Irb, murb.
    destruct (rb_err st) eqn:Er; try (inv Hr; rewrite Er; cbn [is_none]; fin).
    destruct (read_full rd fuel max (rb_u st)) as [[data e1] u1] eqn:Hrf. cbn beta iota zeta in Hr.
    destruct (read_full_fuel rd I mu P _ _ _ _ _ _ Hi Hm Hrf) as (A & B & C & D & E).
    destruct data as [|x data]; cbn [is_nil negb] in Hr.
    - assert (e1 <> ENone).
      { intros ->. specialize (E eq_refl). unfold lenN in E. cbn [length] in E. lia. }
      destruct e1; try congruence; inv Hr; cbn [rb_u rb_err is_none]; fin.
    - specialize (D ltac:(discriminate)).
      destruct e1; inv Hr; cbn [rb_u rb_err is_none]; fin.
  Qed.
End Rb.

Section Cb.
  Context {St : Type}.
  Variable rd : St -> (bytes * err) * St.
  Variable I : St -> Prop.
  Variable mu : St -> nat.
  Hypothesis P : cprog (@length N) rd I mu.
  Variable fuel : nat.

  Definition Icb (st : cbst St) : Prop := I (cb_u st) /\ mu (cb_u st) < fuel.
  Definition mucb (st : cbst St) : nat := mu (cb_u st) + length (cb_last st).

  Lemma cb_loop_eq f left got st : cb_loop rd f left got st =
    if (left =? 0)%N then ((got, ENone), st) else
    match f with
    | O => ((got, EFuel), st)
    | Datatypes.S f =>
        let '((c, e), u') := rd (cb_u st) in
        match e with
        | ENone =>
            let part := takeN left c in
            cb_loop rd f (left - lenN part)%N (got ++ part) (mkCbst u' (dropN left c))
        | _ => ((got, e), mkCbst u' (cb_last st))
        end
    end.
  Proof. destruct f; reflexivity. Qed.

  Lemma cb_loop_fuel : forall f left got st g e st', I (cb_u st) -> mu (cb_u st) < f ->
    cb_loop rd f left got st = ((g, e), st') ->
    e <> EFuel /\ I (cb_u st') /\ mu (cb_u st') <= mu (cb_u st) /\ mucb st' <= mucb st /\
    (length got < length g \/ (e = ENone /\ left <> 0%N) -> mucb st' < mucb st).
  Proof.
    unfold mucb.
    induction f as [|f IH]; intros left got st g e st' Hi Hm Hr; [lia|].
    rewrite cb_loop_eq in Hr. destruct (left =? 0)%N eqn:E0.
    { apply N.eqb_eq in E0. inv Hr. rsplit; auto; try congruence. intros [X|[_ X]]; [lia|congruence]. }
    destruct (rd (cb_u st)) as [[c1 e1] u1] eqn:Hr1. cbn beta iota zeta in Hr.
    destruct (P _ _ _ _ Hi Hr1) as (A & B & C & D).
    destruct e1; try congruence;
      try (inv Hr; cbn [cb_u cb_last]; rsplit; auto; try congruence; try lia; intros [X|[X _]]; [lia|congruence]).
    specialize (D eq_refl). pose proof (len_dropN_le left c1) as L.
    apply IH in Hr; cbn [cb_u cb_last] in *; [|assumption|lia].
    destruct Hr as (A1 & B1 & C1 & D1 & _). fin.
  Qed.

  Lemma cb_read_prog : rprog (cb_read rd fuel) Icb mucb.
  Proof.
    intros cap st g e st' (Hi & Hm) Hr. unfold cb_read in Hr.
    apply cb_loop_fuel in Hr; cbn [cb_u cb_last] in *; [|assumption|assumption].
    destruct Hr as (A & B & C & D & E). unfold Icb, mucb in *. cbn [cb_u cb_last] in *.
    pose proof (len_dropN_le cap (cb_last st)) as L.
    rsplit; auto; try lia.
    intros Hcap Hx.
    destruct (cb_last st) as [|x l] eqn:El.
    - cbn [takeN dropN length] in *. apply E. destruct Hx as [Hx|Hx].
      + right. split; [exact Hx|]. unfold lenN. cbn [length]. lia.
      + left. apply nonnil_length. exact Hx.
    - pose proof (len_dropN_lt cap (x :: l) Hcap ltac:(discriminate)). lia.
  Qed.
End Cb.

Lemma bs_read_prog max : (1 <= max)%N -> cprog (fun _ => 0) (bs_read max) (fun _ => True) (@length N).
Proof.
  intros Hmax d c e d' _ Hr. unfold bs_read in Hr.
  destruct d as [|x d]; cbn [is_nil] in Hr. { inv Hr. fin. }
  remember (x :: d) as xl eqn:Exl in *. assert (Hnn : xl <> []) by (subst; discriminate). clear Exl.
  pose proof (len_dropN_lt max xl Hmax Hnn). destruct (lenN xl <=? max)%N; inv Hr; cbn [length]; fin.
Qed.

Lemma bb_read_prog : rprog bb_read (fun _ => True) (@length N).
Proof.
  intros cap d c e d' _ Hr. unfold bb_read in Hr.
  destruct d as [|x d]; cbn [is_nil] in Hr.
  - destruct (cap =? 0)%N eqn:E0; inv Hr; rsplit; auto; try congruence; intros Hc [X|X]; try congruence.
    apply N.eqb_eq in E0. lia.
  - remember (x :: d) as xl eqn:Exl in *. assert (Hnn : xl <> []) by (subst; discriminate). clear Exl.
    inv Hr. pose proof (len_dropN_le cap xl). rsplit; auto; try congruence.
    intros Hc _. apply len_dropN_lt; assumption.
Qed.

(** * Scripted sources: the measure of a script *)
Definition evm (e : ev) : nat := match e with Chunk bs => S (length bs) | _ => 1 end.
Definition measure (evs : list ev) : nat := fold_right (fun e a => evm e + a) 0 evs.
Lemma measure_cons e r : measure (e :: r) = evm e + measure r.
Proof. reflexivity. Qed.
Lemma measure_nil : measure [] = 0.
Proof. reflexivity. Qed.

Lemma content_le_measure evs : length (fst (content evs)) <= measure evs.
Proof.
  induction evs as [|[bs|x|] r IH]; cbn [content]; rewrite ?measure_cons; cbn [evm fst length]; try lia.
  destruct (content r) as [c e]. cbn [fst] in *. rewrite app_length. lia.
Qed.

Lemma csrc_read_prog : cprog (@length N) csrc_read (fun _ => True) (fun s => measure (c_rest s)).
Proof.
  intros s c e s' _ Hr. unfold csrc_read in Hr.
  destruct (c_rest s) as [|[bs|x|] r] eqn:Er; inv Hr; cbn [c_rest]; rewrite ?Er, ?measure_cons; cbn [evm]; fin.
Qed.

Lemma rsrc_read_prog : rprog rsrc_read (fun _ => True) (fun s => measure (r_rest s)).
Proof.
  intros cap s c e s' _ Hr. unfold rsrc_read in Hr. cbn beta iota zeta in Hr.
  destruct (r_rest s) as [|[bs|x|] r] eqn:Er.
  - inv Hr. rewrite Er. rsplit; auto; try congruence. intros _ [X|X]; congruence.
  - pose proof (len_take_drop cap bs) as L.
    destruct (is_nil (dropN cap bs)) eqn:En; cbn [negb] in Hr.
    + apply is_nil_true in En. rewrite En in L. cbn [length] in L.
      destruct (r_attach s); [destruct r as [|[bs2|x2|] r2]|]; inv Hr; cbn [r_rest];
        rewrite ?measure_cons, ?measure_nil; cbn [evm]; rsplit; auto; try congruence; try lia; intros; lia.
    + assert (Hb : bs <> []) by (intros ->; cbn in En; discriminate).
      inv Hr. cbn [r_rest]. rewrite !measure_cons. cbn [evm]. pose proof (len_dropN_le cap bs).
      rsplit; auto; try congruence; try lia.
      intros Hc _. pose proof (len_dropN_lt cap bs Hc Hb). lia.
  - inv Hr. cbn [r_rest]. rewrite measure_cons. cbn [evm]. rsplit; auto; try congruence; try lia; intros; lia.
  - inv Hr. cbn [r_rest]. rewrite measure_cons. cbn [evm]. rsplit; auto; try congruence; try lia; intros; lia.
Qed.
