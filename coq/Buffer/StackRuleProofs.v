(** C16 — the offering rule for stacks of error handlers, over a whole run of
    [run_stack].

    A handler's [trace] is the list of (error offered, answer given) pairs, in
    order; [hrun ans h tr] says that the handler state [h] is what the scripted
    handler with script [ans] becomes by being offered the errors of [tr] and
    giving the answers of [tr] (and possibly being told Done).  The rule for
    two neighbouring levels ([adj inner outer]):
    - either the inner handler has answered with replacements only (or was
      never asked) and the outer handler has not been asked at all,
    - or the inner handler's LAST answer is an error [c], every earlier answer
      of it a replacement (it was not asked again after answering with an
      error), and the FIRST error the outer handler was offered is [c]. *)
From Coq Require Import List ZArith NArith Bool Lia.
From BBS Require Import Buffer.Source Buffer.Validate Buffer.Convert Buffer.ErrHandler
  Buffer.ValidateProofs Buffer.PreserveProofs Buffer.ErrHandlerProofs Buffer.ClosedOnceProofs.
From BBS Require Buffer.ErrHandlerStackProofs.
Import ListNotations.
Open Scope N_scope.

Definition trace := list (err * answer).
Inductive hrun (ans : list answer) : hst -> trace -> Prop :=
| hr_init : hrun ans (mkHst ans []) []
| hr_ask h tr e : hrun ans h tr -> hrun ans (snd (on_error h e)) (tr ++ [(e, fst (on_error h e))])
| hr_done h tr : hrun ans h tr -> hrun ans (done h) tr.

Definition isrep (p : err * answer) : Prop := exists b, snd p = Replace b.
Definition quietT (tr : trace) : Prop := Forall isrep tr.
Definition failedT (c : Z) (tr : trace) : Prop := exists l e, tr = l ++ [(e, Fail c)] /\ Forall isrep l.
Definition starts (c : Z) (tr : trace) : Prop := exists a rest, tr = (ECode c, a) :: rest.
Definition adj2 (p t : trace) : Prop := exists c, failedT c p /\ starts c t.
Definition adj (p t : trace) : Prop := (quietT p /\ t = []) \/ adj2 p t.

Definition pc (prev : option trace) (t : trace) : Prop :=
  match prev with None => True | Some p => adj p t end.
Fixpoint chain (prev : option trace) (l : list trace) : Prop :=
  match l with
  | [] => True
  | t :: r => pc prev t /\ chain (Some t) r
  end.
Definition lastT (prev : option trace) (l : list trace) : option trace :=
  fold_left (fun _ t => Some t) l prev.

Lemma lastT_app prev l1 l2 : lastT prev (l1 ++ l2) = lastT (lastT prev l1) l2.
Proof. unfold lastT. apply fold_left_app. Qed.
Lemma chain_app : forall l1 prev l2, chain prev (l1 ++ l2) <-> chain prev l1 /\ chain (lastT prev l1) l2.
Proof.
  induction l1 as [|t l1 IH]; intros prev l2; cbn [app chain].
  - cbn. tauto.
  - rewrite IH. cbn [lastT fold_left]. unfold lastT. tauto.
Qed.

Lemma quietT_snoc tr e b : quietT tr -> quietT (tr ++ [(e, Replace b)]).
Proof. intros Hq. apply Forall_app. split; [exact Hq|]. constructor; [exists b; reflexivity|constructor]. Qed.
Lemma failedT_snoc tr e c : quietT tr -> failedT c (tr ++ [(e, Fail c)]).
Proof. intros Hq. exists tr, e. split; [reflexivity|exact Hq]. Qed.
Lemma starts_app c t x : starts c t -> starts c (t ++ x).
Proof. intros (a & rest & ->). exists a, (rest ++ x). reflexivity. Qed.

(** the handler about to be offered [e]: either it has been offered its
    predecessor's error before, or it has not been asked yet and [e] is the
    predecessor's error *)
Definition pend (prev : option trace) (e : err) (t : trace) : Prop :=
  match prev with
  | None => True
  | Some p => adj2 p t \/ (t = [] /\ exists c, failedT c p /\ e = ECode c)
  end.
Lemma pend_asked prev e t a : pend prev e t ->
  match prev with None => True | Some p => adj2 p (t ++ [(e, a)]) end.
Proof.
  destruct prev as [p|]; [|auto]. intros [(c & Hf & Hs)|(-> & c & Hf & ->)].
  - exists c. split; [exact Hf|apply starts_app; exact Hs].
  - exists c. split; [exact Hf|]. exists a, []. reflexivity.
Qed.

(** ghost annotation of the handlers of a world *)
Record ghost := mkG { g_ans : list answer; g_h : hst; g_tr : trace }.
Definition gvalid (g : ghost) : Prop :=
  hrun (g_ans g) (g_h g) (g_tr g) /\ (quietT (g_tr g) \/ exists c, failedT c (g_tr g)).
Definition hs (G : list ghost) := map g_h G.
Definition trs (G : list ghost) := map g_tr G.
Definition scr (G : list ghost) := map g_ans G.
Definition gdone (g : ghost) : ghost := mkG (g_ans g) (done (g_h g)) (g_tr g).

Lemma gdone_valid g : gvalid g -> gvalid (gdone g).
Proof. intros [Hr Hq]. split; [apply hr_done; exact Hr|exact Hq]. Qed.
Lemma hs_gdone G : hs (map gdone G) = map done (hs G).
Proof. unfold hs. rewrite !map_map. reflexivity. Qed.
Lemma trs_gdone G : trs (map gdone G) = trs G.
Proof. unfold trs. rewrite map_map. reflexivity. Qed.
Lemma scr_gdone G : scr (map gdone G) = scr G.
Proof. unfold scr. rewrite map_map. reflexivity. Qed.
Lemma Forall_gdone G : Forall gvalid G -> Forall gvalid (map gdone G).
Proof. induction 1; cbn; constructor; auto using gdone_valid. Qed.
Lemma hs_app G1 G2 : hs (G1 ++ G2) = hs G1 ++ hs G2.
Proof. apply map_app. Qed.
Lemma trs_app G1 G2 : trs (G1 ++ G2) = trs G1 ++ trs G2.
Proof. apply map_app. Qed.
Lemma scr_app G1 G2 : scr (G1 ++ G2) = scr G1 ++ scr G2.
Proof. apply map_app. Qed.

(** the active levels: the lowest one has not failed, the others have not been asked *)
Definition live_chain (prev : option trace) (l : list trace) : Prop :=
  match l with
  | [] => True
  | t :: rest =>
      quietT t /\ (match prev with None => True | Some p => adj2 p t end) /\ Forall (fun t' => t' = []) rest
  end.
Lemma chain_empties : forall rest t, quietT t -> Forall (fun t' : trace => t' = []) rest -> chain (Some t) rest.
Proof.
  induction rest as [|t' rest IH]; intros t Hq Hall; cbn [chain]; [exact I|].
  inversion Hall as [|x l Hx Hr]; subst. split; [left; split; [exact Hq|reflexivity]|].
  apply IH; [constructor|exact Hr].
Qed.
Lemma live_chain_chain prev l : live_chain prev l -> chain prev l.
Proof.
  destruct l as [|t rest]; cbn [live_chain chain]; [auto|]. intros (Hq & Hp & Hall). split.
  - destruct prev; [right; exact Hp|exact I].
  - apply chain_empties; assumption.
Qed.

Lemma escalate_live : forall G prev e r passed act',
  escalate e (hs G) = (r, passed, act') ->
  Forall gvalid G ->
  match G with
  | [] => True
  | g :: rest => quietT (g_tr g) /\ pend prev e (g_tr g) /\ Forall (fun g' => g_tr g' = []) rest
  end ->
  exists Gp Ga, hs Gp = passed /\ hs Ga = act' /\ Forall gvalid (Gp ++ Ga) /\ chain prev (trs Gp) /\
    match fst r with
    | Some _ => scr (Gp ++ Ga) = scr G /\ live_chain (lastT prev (trs Gp)) (trs Ga)
    | None => Ga = [] /\ scr Gp = scr G
    end.
Proof.
  induction G as [|g rest IH]; intros prev e r passed act' He Hv Hpre; cbn [hs map escalate] in He.
  - inv He. exists [], []. cbn. rsplit; auto.
  - destruct Hpre as (Hq & Hpend & Hemp). inversion Hv as [|x l [Hrun Hst] Hvr]; subst.
    pose proof (hr_ask _ _ _ e Hrun) as Hask. pose proof (pend_asked _ _ _ (fst (on_error (g_h g) e)) Hpend) as Hadj.
    destruct (on_error (g_h g) e) as [a h'] eqn:Ho. cbn [fst snd] in Hask, Hadj.
    set (g' := mkG (g_ans g) h' (g_tr g ++ [(e, a)])).
    destruct a as [b|c].
    + inv He. exists [], (g' :: rest). cbn [hs map app trs fst chain lastT fold_left live_chain scr g_h g_tr g_ans g'].
      rsplit; auto.
      * constructor; [|exact Hvr]. split; [exact Hask|left; apply quietT_snoc; exact Hq].
      * apply quietT_snoc; exact Hq.
      * apply Forall_map. exact Hemp.
    + destruct (escalate (ECode c) (map g_h rest)) as [[r0 p] a'] eqn:Hr. inv He.
      assert (Hf : failedT c (g_tr g')) by (apply failedT_snoc; exact Hq).
      destruct (IH (Some (g_tr g')) (ECode c) _ _ _ Hr Hvr) as (Gp & Ga & Hhp & Hha & Hval & Hch & Hm).
      { destruct rest as [|g2 rest2]; [exact I|]. inversion Hemp as [|x l H2 Hr2]; subst.
        rewrite H2. rsplit; [constructor| |exact Hr2].
        right. split; [reflexivity|]. exists c. split; [exact Hf|reflexivity]. }
      exists (g' :: Gp), Ga. cbn [hs map app trs chain g_h g_tr].
      rsplit; auto.
      * unfold hs in Hhp. rewrite Hhp. reflexivity.
      * constructor; [|exact Hval]. split; [exact Hask|right; exists c; exact Hf].
      * destruct prev; [right; exact Hadj|exact I].
      * destruct (fst r).
        -- destruct Hm as (Hs & Hl). split; [cbn [scr map app g_ans g'] in *; unfold scr in Hs; rewrite Hs; reflexivity|].
           cbn [lastT fold_left]. exact Hl.
        -- destruct Hm as (-> & Hs). split; [reflexivity|]. cbn [scr map g_ans g'] in *. unfold scr in Hs. rewrite Hs. reflexivity.
Qed.

(** the world: live (a further error can be offered) / dead (the outermost
    handler has answered with an error, or everything is finished) *)
Definition liveW (S : list (list answer)) (w : world) : Prop :=
  exists Gdn Gact, hs Gdn = w_dn w /\ hs Gact = w_act w /\ scr (Gdn ++ Gact) = S /\
    Forall gvalid (Gdn ++ Gact) /\ chain None (trs Gdn) /\ live_chain (lastT None (trs Gdn)) (trs Gact).
Definition deadW (S : list (list answer)) (w : world) : Prop :=
  exists Gdn Gact, hs Gdn = w_dn w /\ hs Gact = w_act w /\ scr (Gdn ++ Gact) = S /\
    Forall gvalid (Gdn ++ Gact) /\ chain None (trs (Gdn ++ Gact)).

Lemma live_dead S w : liveW S w -> deadW S w.
Proof.
  intros (Gdn & Gact & Hd & Ha & Hs & Hv & Hc & Hl). exists Gdn, Gact. rsplit; auto.
  rewrite trs_app. apply chain_app. split; [exact Hc|apply live_chain_chain; exact Hl].
Qed.

Lemma live_escalate S w e r passed act' :
  escalate e (w_act w) = (r, passed, act') -> liveW S w ->
  match fst r with
  | Some _ => forall c, liveW S (after_replace w passed act' c)
  | None => deadW S (after_failure w passed)
  end.
Proof.
  intros He (Gdn & Gact & Hd & Ha & Hs & Hv & Hc & Hl).
  rewrite <- Ha in He. apply Forall_app in Hv. destruct Hv as [Hvd Hva].
  destruct (escalate_live Gact (lastT None (trs Gdn)) e _ _ _ He Hva) as (Gp & Ga & Hhp & Hha & Hval & Hch & Hm).
  { destruct Gact as [|g rest]; [exact I|]. cbn [trs map live_chain] in Hl. destruct Hl as (Hq & Hp & Hemp).
    rsplit; [exact Hq| |].
    - destruct (lastT None (trs Gdn)); [left; exact Hp|exact I].
    - clear -Hemp. apply Forall_map in Hemp. exact Hemp. }
  apply Forall_app in Hval. destruct Hval as [Hvp Hvga]. rewrite <- Hs, scr_app.
  destruct (fst r).
  - destruct Hm as (Hscr & Hlive). intros c.
    exists (Gdn ++ map gdone Gp), Ga. cbn [after_replace w_dn w_act]. rsplit.
    + rewrite hs_app, hs_gdone, Hd, Hhp. reflexivity.
    + exact Hha.
    + rewrite <- Hscr, !scr_app, scr_gdone, app_assoc. reflexivity.
    + apply Forall_app. split; [apply Forall_app; split; [exact Hvd|apply Forall_gdone; exact Hvp]|exact Hvga].
    + rewrite trs_app, trs_gdone. apply chain_app. split; assumption.
    + rewrite trs_app, trs_gdone, lastT_app. exact Hlive.
  - destruct Hm as (-> & Hscr). exists Gdn, Gp. cbn [after_failure w_dn w_act]. rsplit; auto.
    + rewrite scr_app, Hscr. reflexivity.
    + apply Forall_app. split; assumption.
    + rewrite trs_app. apply chain_app. split; assumption.
Qed.

Lemma dead_all_done S w : deadW S w -> deadW S (all_done w).
Proof.
  intros (Gdn & Gact & Hd & Ha & Hs & Hv & Hc). apply Forall_app in Hv. destruct Hv as [Hvd Hva].
  exists (Gdn ++ map gdone Gact), []. cbn [all_done w_dn w_act]. rewrite app_nil_r. rsplit.
  - rewrite hs_app, hs_gdone, Hd, Ha. reflexivity.
  - reflexivity.
  - rewrite scr_app, scr_gdone, <- scr_app. exact Hs.
  - apply Forall_app. split; [exact Hvd|apply Forall_gdone; exact Hva].
  - rewrite trs_app, trs_gdone, <- trs_app. exact Hc.
Qed.
Lemma dead_retire S w c : deadW S w -> deadW S (retire w c).
Proof. intros H. exact H. Qed.
Lemma live_retire S w c : liveW S w -> liveW S (retire w c).
Proof. intros H. exact H. Qed.

Lemma sch_read_two S ifuel max : forall f r c e r',
  sch_read ifuel f max r = ((c, e), r') -> liveW S (sc_w r) ->
  deadW S (sc_w r') /\ (ok_err e -> liveW S (sc_w r')).
Proof.
  induction f as [|f IH]; intros r c e r' Hr Hl.
  - inv Hr. split; [apply live_dead; exact Hl|]. intros [Hx|Hx]; discriminate.
  - destruct (ucr_read ifuel max (sc_cur r)) as [[chunk t] cur'] eqn:Hrd. destruct (op_done t) eqn:Ht.
    + cbn [sch_read] in Hr. rewrite Hrd in Hr.
      destruct t; try discriminate Ht; inv Hr; (split; [apply live_dead; exact Hl|intros _; exact Hl]).
    + rewrite (sch_read_io _ _ _ _ _ _ _ Hrd Ht) in Hr.
      destruct (escalate t (w_act (sc_w r))) as [[[ob e'] passed] act'] eqn:He.
      pose proof (live_escalate S _ _ _ _ _ He Hl) as Hx. cbn [fst] in Hx. destruct ob as [b|].
      * eapply IH; [exact Hr|]. cbn [sc_w]. apply Hx.
      * inv Hr. cbn [sc_w]. split; [exact Hx|].
        destruct (escalate_failed _ _ _ _ _ He) as (_ & [->|(c0 & ->)]); intros [Hz|Hz]; subst; discriminate.
Qed.

Lemma shr_read_two S fuel cap r c e r' :
  shr_read fuel cap r = ((c, e), r') -> liveW S (sr_w r) ->
  deadW S (sr_w r') /\ (ok_err e -> liveW S (sr_w r')).
Proof.
  intros Hr Hl. destruct (urd_read fuel cap (sr_cur r)) as [[data t] cur'] eqn:Hrd. destruct (op_done t) eqn:Ht.
  - rewrite (shr_read_done _ _ _ _ _ _ Hrd Ht) in Hr. inv Hr. split; [apply live_dead; exact Hl|intros _; exact Hl].
  - rewrite (shr_read_io _ _ _ _ _ _ Hrd Ht) in Hr.
    destruct (escalate t (w_act (sr_w r))) as [[[ob e'] passed] act'] eqn:He.
    pose proof (live_escalate S _ _ _ _ _ He Hl) as Hx. cbn [fst] in Hx. destruct ob as [b|]; inv Hr; cbn [sr_w].
    + split; [apply live_dead; apply Hx|intros _; apply Hx].
    + split; [exact Hx|].
      destruct (escalate_failed _ _ _ _ _ He) as (_ & [->|(c0 & ->)]); intros [Hz|Hz]; subst; discriminate.
Qed.

Definition ruled (S : list (list answer)) (logs : list (list hev)) : Prop :=
  exists G, scr G = S /\ map (fun g => h_log (g_h g)) G = logs /\ Forall gvalid G /\ chain None (trs G).

Lemma dead_ruled S w : deadW S w -> ruled S (logs_of w).
Proof.
  intros (Gdn & Gact & Hd & Ha & Hs & Hv & Hc). exists (Gdn ++ Gact). rsplit; auto.
  unfold logs_of. rewrite <- Hd, <- Ha, <- hs_app. unfold hs. rewrite map_map. reflexivity.
Qed.

Definition liveS S (r : sch) := liveW S (sc_w r).
Definition deadS S (r : sch) := deadW S (sc_w r).
Definition liveR S (r : shr) := liveW S (sr_w r).
Definition deadR S (r : shr) := deadW S (sr_w r).

Section RuleProofs.
  Variable H : bytes -> bytes.
  Variable cfg : vcfg.
  Variable fuel : nat.

  Lemma try_stack_rule S : forall n m b w cbs d0 e cbs' w',
    try_stack H cfg fuel n m b w cbs = (d0, e, cbs', w') -> liveW S w -> deadW S w'.
  Proof.
    induction n as [|n IH]; intros m b w cbs d0 e cbs' w' Ht Hl; rewrite try_stack_eq in Ht; cbv zeta in Ht;
      set (w1 := retire w (closes_of b (plain H cfg fuel b m))) in *; assert (Hl1 : liveW S w1) by exact Hl;
      (destruct (op_done _); [inv Ht; apply dead_all_done, live_dead; exact Hl1|]);
      destruct (escalate _ (w_act w1)) as [[[ob e'] passed] act'] eqn:He;
      pose proof (live_escalate S _ _ _ _ _ He Hl1) as Hx; cbn [fst] in Hx; destruct ob.
    - inv Ht. apply live_dead; exact Hl1.
    - inv Ht. apply dead_all_done; exact Hx.
    - eapply IH; [exact Ht|apply Hx].
    - inv Ht. apply dead_all_done; exact Hx.
  Qed.

  Definition p0 S (st : shv) : Prop := vinv _ (liveS S) (deadS S) st.
  Definition q0 S (st : vst shr) : Prop := vinv _ (liveR S) (deadR S) st.

  Lemma shv_read_rule S max s r s' : shv_read H cfg fuel max s = (r, s') -> p0 S s -> p0 S s'.
  Proof.
    unfold shv_read, p0. apply (vcr_read_two _ _ (liveS S) (deadS S)).
    - intros s0. apply live_dead.
    - intros s0 c e s0' Hr Hl. unfold liveS, deadS in *. eapply sch_read_two; eassumption.
  Qed.
  Lemma shrv_read_rule S cap s r s' : shrv_read H cfg fuel cap s = (r, s') -> q0 S s -> q0 S s'.
  Proof.
    unfold shrv_read, q0. apply (vr_read_two _ _ (liveR S) (deadR S)).
    - intros s0. apply live_dead.
    - intros cap0 s0 c e s0' Hr Hl. unfold liveR, deadR in *. eapply shr_read_two; eassumption.
  Qed.

  Lemma ehs_method_rule S b w m : liveW S w -> ruled S (y_logs (ehs_method H cfg fuel b w m)).
  Proof.
    intros Hl.
    destruct (ErrHandlerStackProofs.ehs_method_walk H cfg fuel (p0 S) (q0 S) (deadW S) b w m) as (w' & Hp & -> & _).
    - intros max s r s'. apply shv_read_rule.
    - intros st [Hd _]. cbn. apply dead_all_done. exact Hd.
    - intros cap s r s'. apply shrv_read_rule.
    - intros st [Hd _]. apply dead_all_done. exact Hd.
    - intros m' d e cbs w' Ht. eapply try_stack_rule; eassumption.
    - unfold discarded. apply dead_retire, dead_all_done, live_dead. exact Hl.
    - split; [apply live_dead; exact Hl|intros _; exact Hl].
    - split; [apply live_dead; exact Hl|intros _; exact Hl].
    - apply dead_ruled. exact Hp.
  Qed.
End RuleProofs.

Definition KS (prev : option trace) (b : bufscript) : Prop :=
  match prev with
  | None => True
  | Some p => (quietT p /\ exists d, b = BBytes d) \/ (exists c, failedT c p /\ b = BError c)
  end.

Lemma hrun_ask ans h tr e a h' : hrun ans h tr -> on_error h e = (a, h') -> hrun ans h' (tr ++ [(e, a)]).
Proof. intros Hr Ho. pose proof (hr_ask _ _ _ e Hr) as Hx. rewrite Ho in Hx. exact Hx. Qed.

Lemma weh_ghost : forall n b h r h' ans tr,
  with_error_handler n b h = (r, h') -> (length (h_answers h) < n)%nat -> hrun ans h tr -> quietT tr ->
  exists new, hrun ans h' (tr ++ new) /\
    (forall c, b = BError c -> starts c new) /\ ((forall c, b <> BError c) -> new = []) /\
    match r with
    | inl b1 => quietT (tr ++ new) /\ (forall d, b <> BBytes d)
    | inr b1 => (quietT (tr ++ new) /\ exists d, b1 = BBytes d) \/ (exists c', failedT c' (tr ++ new) /\ b1 = BError c')
    end.
Proof.
  induction n as [|n IH]; intros b h r h' ans tr Hw Hlen Hrun Hq; [lia|].
  destruct b as [evs|evs a|d|c]; cbn [with_error_handler] in Hw.
  1, 2: inv Hw; exists []; rewrite app_nil_r; rsplit; auto; try discriminate; intros c Hc; discriminate.
  - inv Hw. exists []. rewrite app_nil_r. rsplit; auto.
    + apply hr_done. exact Hrun.
    + intros c Hc; discriminate.
    + left. split; [exact Hq|exists d; reflexivity].
  - destruct (on_error h (ECode c)) as [a h1] eqn:Ho. pose proof (hrun_ask _ _ _ _ _ _ Hrun Ho) as Hrun1.
    destruct a as [b'|c'].
    + pose proof (on_error_len_replace _ _ _ _ Ho) as Hl1.
      destruct (IH b' h1 r h' ans _ Hw ltac:(lia) Hrun1 (quietT_snoc _ _ _ Hq)) as (new1 & Hr1 & _ & _ & Hm).
      exists ((ECode c, Replace b') :: new1).
      replace (tr ++ (ECode c, Replace b') :: new1) with ((tr ++ [(ECode c, Replace b')]) ++ new1)
        by (rewrite <- app_assoc; reflexivity).
      rsplit; auto.
      * intros c0 Hc0. inv Hc0. exists (Replace b'), new1. reflexivity.
      * intros Hne. exfalso. apply (Hne c). reflexivity.
      * destruct r; [|exact Hm]. destruct Hm as [Hm _]. split; [exact Hm|discriminate].
    + inv Hw. exists [(ECode c, Fail c')]. rsplit.
      * apply hr_done. exact Hrun1.
      * intros c0 Hc0. inv Hc0. exists (Fail c'), []. reflexivity.
      * intros Hne. exfalso. apply (Hne c). reflexivity.
      * right. exists c'. split; [apply failedT_snoc; exact Hq|reflexivity].
Qed.

Definition consW (S : list (list answer)) (b : bufscript) (w : world) : Prop :=
  exists Gdn Gact, hs Gdn = w_dn w /\ hs Gact = w_act w /\ scr (Gdn ++ Gact) = S /\
    Forall gvalid (Gdn ++ Gact) /\ chain None (trs Gdn) /\
    match Gact with
    | [] => KS (lastT None (trs Gdn)) b
    | _ :: _ => live_chain (lastT None (trs Gdn)) (trs Gact)
    end.

Section Construction.
  Variable H : bytes -> bytes.
  Variable cfg : vcfg.
  Variable fuel : nat.

  Lemma stack_handlers_rule : forall scripts b w b' w' S0,
    stack_handlers b w (map (fun a => mkHst a []) scripts) = (b', w') ->
    consW S0 b w -> consW (S0 ++ scripts) b' w'.
  Proof.
    induction scripts as [|ans rest IH]; intros b w b' w' S0 Hs Hc; cbn [map stack_handlers] in Hs.
    - inv Hs. rewrite app_nil_r. exact Hc.
    - replace (S0 ++ ans :: rest) with ((S0 ++ [ans]) ++ rest) by (rewrite <- app_assoc; reflexivity).
      destruct Hc as (Gdn & Gact & Hd & Ha & Hscr & Hv & Hch & Hm).
      set (g0 := mkG ans (mkHst ans []) []).
      assert (Hv0 : gvalid g0) by (split; [apply hr_init|left; constructor]).
      destruct (w_act w) as [|a0 arest] eqn:Eact.
      + destruct Gact as [|gx Gx]; [|discriminate].
        rewrite app_nil_r in *.
        destruct (with_error_handler _ b (mkHst ans [])) as [r h'] eqn:Hweh.
        destruct (weh_ghost _ _ _ _ _ ans [] Hweh ltac:(cbn; lia) (hr_init ans) (Forall_nil _))
          as (new & Hrun & Hst & Hemp & Hres).
        cbn [app] in Hrun, Hres.
        set (g' := mkG ans h' new).
        assert (Hpc : pc (lastT None (trs Gdn)) new).
        { destruct (lastT None (trs Gdn)) as [p|]; [|exact I]. cbn [pc KS] in *.
          destruct Hm as [(Hq & d & ->)|(c & Hf & ->)].
          - left. split; [exact Hq|]. apply Hemp. intros c Hc. discriminate.
          - right. exists c. split; [exact Hf|apply Hst; reflexivity]. }
        destruct r as [b1|b1]; (eapply IH; [exact Hs|]).
        * destruct Hres as (Hq & Hnb).
          exists Gdn, [g']. cbn [w_dn w_act hs map trs live_chain g_h g_tr g']. rsplit; auto.
          -- rewrite scr_app, Hscr. reflexivity.
          -- apply Forall_app. split; [exact Hv|constructor; [|constructor]]. split; [exact Hrun|left; exact Hq].
          -- destruct (lastT None (trs Gdn)) as [p|]; [|exact I]. cbn [KS] in Hm.
             destruct Hm as [(_ & d & ->)|(c & Hf & ->)]; [exfalso; eapply Hnb; reflexivity|].
             exists c. split; [exact Hf|apply Hst; reflexivity].
        * exists (Gdn ++ [g']), []. rewrite app_nil_r. cbn [w_dn w_act]. rsplit; auto.
          -- rewrite hs_app, Hd. reflexivity.
          -- rewrite scr_app, Hscr. reflexivity.
          -- apply Forall_app. split; [exact Hv|constructor; [|constructor]]. split; [exact Hrun|].
             destruct Hres as [(Hq & _)|(c' & Hf & _)]; [left; exact Hq|right; exists c'; exact Hf].
          -- rewrite trs_app. apply chain_app. split; [exact Hch|]. cbn. split; [exact Hpc|exact I].
          -- rewrite trs_app, lastT_app. cbn [map lastT fold_left g_tr g' KS]. exact Hres.
      + destruct Gact as [|gx Gx]; [discriminate|].
        eapply IH; [exact Hs|]. exists Gdn, ((gx :: Gx) ++ [g0]). cbn [w_dn w_act]. rsplit; auto.
        * rewrite hs_app, Ha. reflexivity.
        * rewrite app_assoc, scr_app, Hscr. reflexivity.
        * rewrite app_assoc. apply Forall_app. split; [exact Hv|constructor; [exact Hv0|constructor]].
        * cbn [app trs map live_chain] in *. destruct Hm as (Hq & Hp & He). rsplit; auto.
          rewrite map_app. apply Forall_app. split; [exact He|constructor; [reflexivity|constructor]].
  Qed.

  Theorem run_stack_ruled b0 anss m : ruled anss (y_logs (run_stack H cfg fuel b0 anss m)).
  Proof.
    unfold run_stack.
    destruct (stack_handlers b0 _ _) as [b w] eqn:Hs.
    apply (stack_handlers_rule _ _ _ _ _ []) in Hs.
    - cbn [app] in Hs. destruct Hs as (Gdn & Gact & Hd & Ha & Hscr & Hv & Hch & Hm).
      destruct (w_act w) as [|a0 arest] eqn:Eact.
      + destruct Gact as [|gx Gx]; [|discriminate].
        cbn [y_logs]. apply dead_ruled. exists Gdn, []. rewrite Eact. rsplit; auto. rewrite app_nil_r. exact Hch.
      + destruct Gact as [|gx Gx]; [discriminate|].
        apply ehs_method_rule. exists Gdn, (gx :: Gx). rewrite Eact. rsplit; auto.
    - exists [], []. cbn. rsplit; auto.
  Qed.
End Construction.

(** the errors of a trace are exactly the OnError calls of the handler's log, in order *)
Definition onerrors (log : list hev) : list err :=
  flat_map (fun x => match x with HOnError e => [e] | HDone => [] end) log.
Lemma hrun_log ans h tr : hrun ans h tr -> onerrors (h_log h) = map fst tr.
Proof.
  induction 1 as [|h tr e _ IH|h tr _ IH].
  - reflexivity.
  - rewrite on_error_log. unfold onerrors in *. rewrite flat_map_app, IH, map_app. reflexivity.
  - cbn [done h_log]. unfold onerrors in *. rewrite flat_map_app, IH. cbn. apply app_nil_r.
Qed.
