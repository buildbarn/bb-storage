(** C16 — completed streaming runs of a stack in closed form, at the level of
    the model's outcome ([run_stack]): if IntoWriter / ToChunkReader / ToReader
    completes, the stitched stream [st] of the level-wise specification
    [stitch_stack (piece_of b0 0) anss] ends with io.EOF, has the digest's size
    and hash, the consumer holds exactly the expected slice of it, and every
    handler has been offered exactly the errors the specification lists —
    what the monitor's clauses 3 and 4 demand of an implementation run.
    They are the case "ended with io.EOF" of what holds of every streaming
    method on a stack however it ends ([ehs_streaming_facts]). *)
From Coq Require Import List ZArith NArith Bool Lia.
From BBS Require Import Buffer.Source Buffer.Validate Buffer.Convert Buffer.ErrHandler
  Buffer.StreamProofs Buffer.ValidateProofs Buffer.ValidateReaderProofs Buffer.ConvertProofs
  Buffer.ReaderBufferProofs Buffer.ErrHandlerProofs Buffer.C09FullExtras Buffer.EHFullReader
  Buffer.EHFullStack Buffer.EHFullExact Buffer.EHFullPrefix Buffer.EHFullStackExact
  Buffer.EHFullStacking Buffer.EHFullPartial Run.R09 Run.R16.
Import ListNotations.
Open Scope N_scope.

Definition oell (log : list hev) : list err :=
  flat_map (fun x => match x with HOnError e => [e] | HDone => [] end) log.
Lemma map_oell_logs hs : map oell (map h_log hs) = map oel hs.
Proof. rewrite map_map. reflexivity. Qed.

Lemma oews_sch_closed r : map oell (logs_of (sc_w (sch_close r))) = oews (sc_w r).
Proof.
  unfold sch_close, logs_of, oews, lv, retire, all_done. cbn [sc_w w_dn w_act]. rewrite app_nil_r, map_oell_logs.
  rewrite !map_app, map_oel_done. reflexivity.
Qed.
Lemma oews_shr_closed r : map oell (logs_of (sr_w (shr_close r))) = oews (sr_w r).
Proof.
  unfold shr_close, logs_of, oews, lv, retire, all_done. cbn [sr_w w_dn w_act]. rewrite app_nil_r, map_oell_logs.
  rewrite !map_app, map_oel_done. reflexivity.
Qed.

Definition no_fuel_offered (logs : list (list hev)) : Prop := Forall (fun l => ~ In EFuel (oell l)) logs.

Lemma no_fuel_lv logs hs : map oell logs = map oel hs -> no_fuel_offered logs -> Forall (fun h => ~ In EFuel (oel h)) hs.
Proof.
  intros E Hn. unfold no_fuel_offered in Hn.
  assert (Hm : Forall (fun l => ~ In EFuel l) (map oell logs)) by (rewrite Forall_map; exact Hn).
  rewrite E, Forall_map in Hm. exact Hm.
Qed.

Definition spec_of (b : bufscript) (scripts : list (list answer)) :=
  let '(p, t) := piece_of b 0 in stitch_stack p t scripts.

Definition ended_as (cfg : vcfg) (e : err) (st : bytes) (term : err) (qss offss : list (list err)) : Prop :=
  (e = term /\ qss = offss) \/
  (e = ECode (g_code cfg) /\ term = EEof /\ qss = offss) \/
  (e = ECode (g_code cfg) /\ g_size cfg < lenN st).

Definition run_facts (H : bytes -> bytes) (cfg : vcfg) (spec : bytes * err * list (list err))
           (dn : list (list err)) (act : list (list err)) (out : bytes) (e : err) (logs : list (list err)) : Prop :=
  let '(st, term, offss) := spec in
  exists qss rest,
    logs = dn ++ zipo act qss /\ Forall2 lpre qss offss /\ st = out ++ rest /\ ended_as cfg e st term qss offss /\
    (e = EEof -> st = out /\ lenN out = g_size cfg /\ g_hash cfg = H out).

Lemma lpre_refl : forall l : list (list err), Forall2 lpre l l.
Proof. induction l; constructor; [exists []; now rewrite app_nil_r|assumption]. Qed.

(** with at least one active level the nested readers never say EFuel themselves
    (an out-of-fuel error of a reader underneath is offered to a handler) *)
Lemma shr_read_shape fuel cap r c e r' :
  shr_read fuel cap r = ((c, e), r') -> w_act (sr_w r) <> [] -> e <> EFuel /\ w_act (sr_w r') <> [].
Proof.
  intros Hr Hn. destruct (urd_read fuel cap (sr_cur r)) as [[data t] cur'] eqn:Hu. destruct (op_done t) eqn:Hop.
  - rewrite (shr_read_done _ _ _ _ _ _ Hu Hop) in Hr. inv Hr. split; [intros ->; discriminate|assumption].
  - rewrite (shr_read_io _ _ _ _ _ _ Hu Hop) in Hr.
    destruct (escalate t (w_act (sr_w r))) as [[[ob e'] passed] act'] eqn:Hesc.
    pose proof (escalate_nonempty _ _ _ _ _ _ Hesc Hn) as Hs. destruct ob as [b|]; inv Hr; cbn.
    + split; [congruence|exact Hs].
    + destruct Hs as (Hp & cc & ->). split; [congruence|exact Hp].
Qed.
Lemma shr_rdrains_shape fuel r bs t r' :
  rdrains (shr_read fuel) r bs t r' -> w_act (sr_w r) <> [] -> t <> EFuel.
Proof.
  induction 1 as [cap r c e r1 Hr Hne|cap r c r1 bs e r2 Hr _ IH]; intros Hn.
  - exact (proj1 (shr_read_shape _ _ _ _ _ _ Hr Hn)).
  - apply IH. exact (proj2 (shr_read_shape _ _ _ _ _ _ Hr Hn)).
Qed.

Section StreamFacts.
  Variable H : bytes -> bytes.
  Variable cfg : vcfg.
  Variable fuel : nat.

  Lemma chunk_stream_facts max b w out e st' :
    drains (shv_read H cfg fuel max) (vinit cfg (sch_init fuel b w)) out e st' -> e <> EFuel ->
    wf_buf b -> hs_wf (w_act w) -> w_act w <> [] ->
    Forall (fun h => ~ In EFuel (oel h)) (lv (sc_w (v_u st'))) ->
    run_facts H cfg (spec_of b (map h_answers (w_act w))) (map oel (w_dn w)) (map oel (w_act w)) out e
              (oews (sc_w (v_u st'))).
  Proof.
    intros Hd Hne Hwf Hw Hnn Hnf. unfold shv_read in Hd.
    destruct (vcr_trace H cfg _ _ fuel (sch_init fuel b w) _ [] _ _ _ Hd Hne (T_init _ _ _ _)) as (Ht & Herr).
    cbn [app] in Ht. unfold T in Ht. rewrite Herr in Ht.
    pose proof (drains_not_none _ _ _ _ _ _ Hd) as Hnn0.
    assert (Hx : exists bs r, bs = out ++ r /\ ended cfg _ (sch_read fuel fuel max) (sch_init fuel b w) bs (v_u st') e)
      by (destruct e; try congruence; exact Ht).
    clear Ht. destruct Hx as (bs & r & -> & [(t & Hdu & Het)|(Hpu & -> & Hlen)]).
    - assert (Htf : t <> EFuel) by (destruct Het as [->|(-> & _)]; congruence).
      destruct (stack_chunk_stream_is_stitch_stack _ _ _ _ _ _ _ _ Hdu Hwf Hw Hnn Htf Hnf) as (offss & Hss & Ho & _).
      unfold run_facts, spec_of. rewrite Hss. exists offss, r. rsplit; auto; [apply lpre_refl| |].
      + destruct Het as [->|(-> & ->)]; [left; auto|right; left; auto].
      + (* a completed stream is all of the stream underneath *)
        intros ->. destruct (vcr_complete_implies_valid _ _ _ _ _ _ _ _ Hd) as (_ & Hl & Hh).
        destruct (drains_det _ _ _ _ _ _ _ _ _ (vcr_complete_under _ _ _ _ _ _ _ _ Hd) Hdu) as (<- & _). auto.
    - destruct (stack_chunk_pulled_is_prefix _ _ _ _ _ _ _ Hpu Hwf Hw Hnn Hnf) as (rest & e2 & offss & qss & Hss & Ho & Hq).
      unfold run_facts, spec_of. rewrite Hss. exists qss, (r ++ rest). rsplit; auto; [now rewrite <- app_assoc| |discriminate].
      right. right. split; [reflexivity|]. rewrite lenN_app. lia.
  Qed.

  Lemma shrv_trace b w out e st' :
    rdrains (shrv_read H cfg fuel) (vinit cfg (shr_init fuel b w)) out e st' -> e <> EFuel ->
    Tr H cfg _ (shr_read fuel) (shr_init fuel b w) (fun s => urd_nu (sr_cur s)) st' out /\ v_err st' = e.
  Proof.
    intros Hd Hne. unfold shrv_read in Hd.
    exact (vr_trace H cfg _ _ fuel (shr_init fuel b w) (fun s => urd_nu (sr_cur s)) (shr_read_nu fuel) _ [] _ _ _ Hd Hne
             (Tr_init H cfg _ (shr_read fuel) (shr_init fuel b w) (fun s => urd_nu (sr_cur s)) (urd_open_nu fuel b 0))).
  Qed.

  Lemma reader_stream_facts b w out e st' :
    rdrains (shrv_read H cfg fuel) (vinit cfg (shr_init fuel b w)) out e st' -> e <> EFuel ->
    wf_buf b -> hs_wf (w_act w) -> w_act w <> [] ->
    Forall (fun h => ~ In EFuel (oel h)) (lv (sr_w (v_u st'))) ->
    run_facts H cfg (spec_of b (map h_answers (w_act w))) (map oel (w_dn w)) (map oel (w_act w)) out e
              (oews (sr_w (v_u st'))).
  Proof.
    intros Hd Hne Hwf Hw Hnn Hnf. destruct (shrv_trace _ _ _ _ _ Hd Hne) as ((Ht & Hv) & Herr).
    unfold Tr0 in Ht. unfold Wv in Hv. rewrite Herr in Ht, Hv.
    pose proof (rdrains_not_none _ _ _ _ _ _ Hd) as Hnn0.
    assert (Hx : exists bs r, bs = out ++ r /\
                   endedr cfg _ (shr_read fuel) (shr_init fuel b w) bs (v_u st') e)
      by (destruct e; try congruence; exact Ht).
    clear Ht. destruct Hx as (bs & r & -> & [(t & Hdu & Het)|(Hpu & -> & Hlen)]).
    - assert (Htf : t <> EFuel) by (eapply shr_rdrains_shape; [exact Hdu|exact Hnn]).
      destruct (stack_reader_stream_is_stitch_stack _ _ _ _ _ _ Hdu Hwf Hw Hnn Htf Hnf) as (offss & Hss & Ho & _).
      unfold run_facts, spec_of. rewrite Hss. exists offss, r. rsplit; auto; [apply lpre_refl| |].
      + destruct Het as [->|[(-> & ->)|(-> & Hl)]]; [left; auto|right; left; auto|right; right; auto].
      + (* the stream underneath that [Wv] names has the same specification *)
        intros ->. destruct Hv as (Hu & Hl & Hh).
        destruct (stack_reader_stream_is_stitch_stack _ _ _ _ _ _ Hu Hwf Hw Hnn ltac:(congruence) Hnf) as (o2 & Hs2 & _).
        rewrite Hss in Hs2. injection Hs2 as -> _ _. auto.
    - destruct (stack_reader_pulled_is_prefix _ _ _ _ _ Hpu Hwf Hw Hnn Hnf) as (rest & e2 & offss & qss & Hss & Ho & Hq).
      unfold run_facts, spec_of. rewrite Hss. exists qss, (r ++ rest). rsplit; auto; [now rewrite <- app_assoc| |discriminate].
      right. right. split; [reflexivity|]. rewrite lenN_app. lia.
  Qed.

  Lemma reader_stream_withheld b w out e st' :
    rdrains (shrv_read H cfg fuel) (vinit cfg (shr_init fuel b w)) out e st' -> e <> EFuel -> e <> EEof ->
    out = [] \/ lenN out < g_size cfg.
  Proof.
    intros Hd Hnf Hne. destruct (shrv_trace _ _ _ _ _ Hd Hnf) as ((_ & Hw) & Herr).
    unfold Wv in Hw. rewrite Herr in Hw. pose proof (rdrains_not_none _ _ _ _ _ _ Hd) as Hnn.
    destruct e; try congruence; destruct Hw; auto.
  Qed.

  Lemma chunk_stream_withheld max r0 out e st' :
    drains (shv_read H cfg fuel max) (vinit cfg r0) out e st' -> e <> EEof -> out = [] \/ lenN out < g_size cfg.
  Proof.
    intros Hd Hne. unfold shv_read in Hd.
    destruct (vcr_drains _ _ _ _ _ _ _ _ _ _ _ (Inv_init _ _ _ _ r0) Hd) as ((_ & Hi) & Herr). cbn [app] in Hi.
    pose proof (drains_not_none _ _ _ _ _ _ Hd) as Hnn. rewrite Herr in Hi.
    destruct e; try congruence; destruct Hi as ([?|?] & _); auto.
  Qed.

  Theorem ehs_streaming_facts b w m :
    streaming m -> bad_param (g_size cfg) m = false ->
    wf_buf b -> hs_wf (w_act w) -> w_act w <> [] ->
    y_err (ehs_method H cfg fuel b w m) <> EFuel ->
    no_fuel_offered (y_logs (ehs_method H cfg fuel b w m)) ->
    exists out e,
      e <> ENone /\
      run_facts H cfg (spec_of b (map h_answers (w_act w))) (map oel (w_dn w)) (map oel (w_act w)) out e
                (map oell (y_logs (ehs_method H cfg fuel b w m))) /\
      y_data (ehs_method H cfg fuel b w m) = dropN (Z.to_N (m_off m)) out /\
      y_err (ehs_method H cfg fuel b w m) = match m, e with MIntoWriter, EEof => ENone | _, _ => e end /\
      (e <> EEof -> out = [] \/ lenN out < g_size cfg).
  Proof.
    intros Hm. destruct m; try contradiction; cbn [ehs_method bad_param m_off].
    - (* IntoWriter *)
      intros _. unfold into_writer_cr. destruct (drain _ fuel [] _) as [[out e] st1] eqn:Hd.
      cbn [y_err y_data y_logs]. intros Hwf Hw Hnn Hne Hnf.
      assert (He : e <> EFuel) by (destruct e; congruence).
      destruct (drain_drains _ _ _ _ _ _ _ _ Hd He) as (bs & -> & Hds). cbn [app] in *.
      cbn [shv_close v_set_u v_u] in *. rewrite oews_sch_closed in *.
      pose proof (no_fuel_lv _ _ (oews_sch_closed (v_u st1)) Hnf) as Hnf'.
      exists bs, e. rsplit; [exact (drains_not_none _ _ _ _ _ _ Hds)| |now rewrite dropN_0|reflexivity|].
      + eapply chunk_stream_facts; eassumption.
      + eapply chunk_stream_withheld; exact Hds.
    - (* ToChunkReader *)
      intros Hbp. apply negb_false_iff in Hbp. rewrite Hbp.
      destruct (drain _ fuel [] _) as [[out e] o1] eqn:Hd.
      destruct (extra_reads _ extra o1) as [ex o2] eqn:Hex.
      cbn [y_err y_data y_logs]. intros Hwf Hw Hnn Hne Hnf.
      assert (Hst : sticky _ (offset_read (shv_read H cfg fuel max))).
      { intros s c e0 s' Hr Hne0 Hnf0. eapply offset_read_sticky; [|exact Hr|exact Hne0|exact Hnf0].
        intros s0 c0 e1 s0' Hr0 Hne1 _. unfold shv_read in *. exact (proj2 (vcr_sticky _ _ _ _ _ _ _ _ _ Hr0 Hne1)). }
      rewrite (drain_then_extra _ _ _ _ _ _ _ _ extra Hst Hd Hne) in Hex. inv Hex.
      unfold valid_offset in Hbp. apply andb_true_iff in Hbp. destruct Hbp as (Hpos & Hsz). apply Z.leb_le in Hpos.
      destruct (drain_drains _ _ _ _ _ _ _ _ Hd Hne) as (bs & -> & Hds). cbn [app] in *.
      destruct (offset_stream _ _ _ _ _ _ _ _ Hds Hpos Hne) as (full & u & Hall & -> & Hcl).
      rewrite Hcl in *. cbn [shv_close v_set_u v_u] in *. rewrite oews_sch_closed in *.
      pose proof (no_fuel_lv _ _ (oews_sch_closed (v_u u)) Hnf) as Hnf'.
      exists full, e. rsplit; [exact (drains_not_none _ _ _ _ _ _ Hall)| |reflexivity|reflexivity|].
      + eapply chunk_stream_facts; eassumption.
      + eapply chunk_stream_withheld; exact Hall.
    - (* ToReader *)
      intros _. destruct (rconsume _ fuel caps _ [] _) as [[out e] st1] eqn:Hr.
      destruct (rextra _ extra _ st1) as [ex st2] eqn:Hex.
      cbn [y_err y_data y_logs]. intros Hwf Hw Hnn Hne Hnf.
      destruct (rconsume_rdrains _ _ _ _ _ _ _ _ _ _ Hr Hne) as (bs & -> & Hds). cbn [app] in *.
      assert (Hst2 : st2 = st1).
      { destruct (rconsume_last _ _ _ _ _ _ _ _ _ _ Hr Hne) as (cap & s1 & c & Hrd & Hne0).
        unfold shrv_read in *.
        pose proof (vr_sticky _ _ _ _ _ _ _ _ _ _ Hrd Hne0 (last_cap caps)) as Hsk.
        pose proof (rextra_nodata _ _ (last_cap caps) extra st1 (ex_intro _ _ Hsk)) as (_ & Hs).
        rewrite Hex in Hs. exact Hs. }
      subst st2. cbn [v_set_u v_u] in *. rewrite oews_shr_closed in *.
      pose proof (no_fuel_lv _ _ (oews_shr_closed (v_u st1)) Hnf) as Hnf'.
      exists bs, e. rsplit; [exact (rdrains_not_none _ _ _ _ _ _ Hds)| |now rewrite dropN_0|reflexivity|].
      + eapply reader_stream_facts; eassumption.
      + eapply reader_stream_withheld; [exact Hds|exact Hne].
  Qed.

  Theorem ehs_completed_streaming b w m :
    streaming m ->
    completed m (y_err (ehs_method H cfg fuel b w m)) = true ->
    wf_buf b -> hs_wf (w_act w) -> w_act w <> [] ->
    no_fuel_offered (y_logs (ehs_method H cfg fuel b w m)) ->
    exists st offss,
      spec_of b (map h_answers (w_act w)) = (st, EEof, offss) /\
      lenN st = g_size cfg /\ g_hash cfg = H st /\
      y_data (ehs_method H cfg fuel b w m) = expected_slice m st /\
      map oell (y_logs (ehs_method H cfg fuel b w m)) = map oel (w_dn w) ++ zipo (map oel (w_act w)) offss.
  Proof.
    intros Hm Hcomp Hwf Hw Hnn Hnf.
    destruct (bad_param (g_size cfg) m) eqn:Hbp.
    { destruct m; try contradiction; try discriminate Hbp. cbn [bad_param] in Hbp. apply negb_true_iff in Hbp.
      cbn [ehs_method] in Hcomp. rewrite Hbp in Hcomp. discriminate. }
    assert (Hef : y_err (ehs_method H cfg fuel b w m) <> EFuel)
      by (intros E; rewrite E in Hcomp; destruct m; try contradiction; discriminate).
    destruct (ehs_streaming_facts b w m Hm Hbp Hwf Hw Hnn Hef Hnf) as (out & e & Hen & Hrf & Hdat & Herr & _).
    assert (e = EEof) by (rewrite Herr in Hcomp; destruct m; try contradiction; destruct e; try discriminate; congruence).
    subst e. unfold run_facts in Hrf. destruct (spec_of b _) as [[st term] offss].
    destruct Hrf as (qss & rest & Hlog & _ & _ & Hend & Hc). destruct (Hc eq_refl) as (-> & Hl & Hh).
    destruct Hend as [(<- & ->)|[(Hx & _)|(Hx & _)]]; try discriminate.
    exists out, offss. rsplit; auto. rewrite Hdat. destruct m; try contradiction; cbn [m_off expected_slice]; auto using dropN_0.
  Qed.
End StreamFacts.

Definition replacements (anss : list (list answer)) : list bufscript :=
  flat_map (fun a => match a with Replace b => [b] | _ => [] end) (concat anss).

Lemma weh_origin : forall n b h r h',
  with_error_handler n b h = (r, h') ->
  let b' := match r with inl x | inr x => x end in
  b' = b \/ In (Replace b') (h_answers h) \/ match b' with BError _ => True | _ => False end.
Proof.
  induction n as [|n IH]; intros b h r h' Hw; destruct b; cbn [with_error_handler] in Hw; try (inv Hw; auto; fail).
  - destruct (on_error h (ECode c)) as [a h1] eqn:Ho. destruct a; inv Hw; cbn; auto.
  - destruct (on_error h (ECode c)) as [a h1] eqn:Ho. destruct a as [b1|c1]; [|inv Hw; cbn; auto].
    rewrite (on_error_replace _ _ _ _ Ho). destruct (IH _ _ _ _ Hw) as [->|[Hin|Hk]]; cbn; auto.
Qed.

Lemma stack_handlers_origin : forall hs b w b' w',
  stack_handlers b w hs = (b', w') ->
  b' = b \/ (exists h, In h hs /\ In (Replace b') (h_answers h)) \/ match b' with BError _ => True | _ => False end.
Proof.
  induction hs as [|h rest IH]; intros b w b' w' Hs; cbn [stack_handlers] in Hs; [inv Hs; auto|].
  destruct (w_act w).
  - destruct (with_error_handler _ b h) as [r h'] eqn:Hw. pose proof (weh_origin _ _ _ _ _ Hw) as Ho.
    assert (Hgen : forall b1 w1, stack_handlers b1 w1 rest = (b', w') ->
              (b1 = b \/ In (Replace b1) (h_answers h) \/ match b1 with BError _ => True | _ => False end) ->
              b' = b \/ (exists hx, In hx (h :: rest) /\ In (Replace b') (h_answers hx)) \/
              match b' with BError _ => True | _ => False end).
    { intros b1 w1 Hs1 Hb1. destruct (IH _ _ _ _ Hs1) as [->|[(hx & Hin & Hr)|Hk]].
      - destruct Hb1 as [->|[Hin|Hk]]; auto. right. left. exists h. split; [left; reflexivity|exact Hin].
      - right. left. exists hx. split; [right; exact Hin|exact Hr].
      - auto. }
    destruct r as [b1|b1]; eapply Hgen; eauto.
  - destruct (IH _ _ _ _ Hs) as [->|[(hx & Hin & Hr)|Hk]]; auto.
    right. left. exists hx. split; [right; exact Hin|exact Hr].
Qed.

Section WholeCompleted.
  Variable H : bytes -> bytes.
  Variable cfg : vcfg.
  Variable fuel : nat.

  Definition valid_bytes (d : bytes) : Prop := lenN d = g_size cfg /\ g_hash cfg = H d.
  (** the byte slices among the buffers of a case hold valid content *)
  Definition bytes_trusted (b0 : bufscript) (anss : list (list answer)) : Prop :=
    forall d, In (BBytes d) (b0 :: replacements anss) -> valid_bytes d.

  Theorem run_stack_completed_streaming b0 anss m :
    streaming m -> anss <> [] ->
    completed m (y_err (run_stack H cfg fuel b0 anss m)) = true ->
    wf_case b0 anss -> no_fuel_offered (y_logs (run_stack H cfg fuel b0 anss m)) ->
    exists st,
      (let '(p0, t0) := piece_of b0 0 in stitch_stack p0 t0 anss)
        = (st, EEof, map oell (y_logs (run_stack H cfg fuel b0 anss m))) /\
      y_data (run_stack H cfg fuel b0 anss m) = expected_slice m st /\
      (bytes_trusted b0 anss -> valid_bytes st).
  Proof.
    intros Hm Hne. unfold run_stack.
    destruct (stack_handlers b0 _ _) as [b w] eqn:Hs. intros Hcomp Hwf Hnf.
    destruct (stacked_spec _ _ _ _ Hs Hwf) as (Hb & Hw & Hspec).
    destruct (w_act w) as [|a act] eqn:Ea.
    - (* a buffer in a known state *)
      cbn [y_err y_data y_logs] in *.
      assert (Hk : match b with BBytes _ | BError _ => True | _ => False end).
      { eapply stack_handlers_known; [exact Hs| |reflexivity|exact Ea]. destruct anss; [congruence|discriminate]. }
      destruct b as [evs|evs a0|d|x]; try contradiction; cbn [plain] in *.
      + exists d. pose proof (piece0_known (BBytes d)) as Hpk. unfold piece0 in Hpk.
        rewrite Hpk in Hspec. cbn [map stitch_stack zipo] in Hspec.
        rewrite app_nil_r in Hspec. rsplit.
        * rewrite Hspec. unfold logs_of. rewrite Ea, map_oell_logs, app_nil_r. reflexivity.
        * apply byte_slice_buffer_expected. exact Hcomp.
        * intros Ht. apply Ht.
          destruct (stack_handlers_origin _ _ _ _ _ Hs) as [->|[(h0 & Hin & Hr)|Hk']]; [left; reflexivity| |contradiction].
          right. unfold replacements. apply in_flat_map. exists (Replace (BBytes d)). split; [|left; reflexivity].
          apply in_concat. apply in_map_iff in Hin. destruct Hin as (a1 & <- & Hin). exists a1. split; [exact Hin|exact Hr].
      + rewrite error_buffer_never_completes in Hcomp by (destruct m; try contradiction; congruence). discriminate.
    - assert (Hnn : w_act w <> []) by (rewrite Ea; discriminate). rewrite <- Ea in *.
      destruct (ehs_completed_streaming H cfg fuel b w m Hm Hcomp Hb Hw Hnn Hnf) as (st & offss & Hss & Hl & Hh & Hd & Hlog).
      exists st. unfold spec_of in Hss. rewrite Hss in Hspec. rsplit.
      + rewrite Hspec, Hlog. reflexivity.
      + exact Hd.
      + intros _. split; assumption.
  Qed.
End WholeCompleted.
