(** C16 — stacks of error handlers in closed form: the stream of the nested
    error-handling readers (the FLATTENED model [sch_read] / [shr_read]: one
    plain reader below the active levels, [escalate]) is the LEVEL-WISE
    specification [stitch_stack] the monitor evaluates: level l+1 takes the whole
    stream of level l as its base and consults its own script when that stream
    fails.  Every level's OnError log grows by exactly the errors
    [stitch_stack] says it is offered.  For well-formed buffers and no fuel
    exhaustion; any depth; chunk-reader path and io.Reader path. *)
From Coq Require Import List ZArith NArith Bool Lia.
From BBS Require Import Buffer.Source Buffer.ErrHandler Buffer.StreamProofs Buffer.ValidateProofs
  Buffer.ValidateReaderProofs Buffer.ErrHandlerProofs Buffer.EHFullExact Run.R16.
Import ListNotations.
Open Scope N_scope.

Definition spec3 := (bytes * err * list (list err))%type.

Lemma stitch_stack_eof : forall anss x, stitch_stack x EEof anss = (x, EEof, map (fun _ => []) anss).
Proof.
  induction anss as [|a r IH]; intros x; cbn [stitch_stack map]; [reflexivity|].
  cbn [stitch_from]. rewrite IH. reflexivity.
Qed.

(** [stitch b k] is [stitch_from] of the piece of [b] at [k], behind what has
    been delivered before *)
Lemma stitch_as_from pre b k ans p t :
  lenN pre = k -> piece_of b k = (p, t) ->
  stitch_from (pre ++ p) t ans =
  (let '(d, t2, offs) := stitch b k ans in (pre ++ d, t2, offs)).
Proof.
  intros Hk Hp. destruct ans as [|[b'|c] rest]; cbn [stitch]; rewrite Hp; destruct t; cbn [stitch_from]; try reflexivity.
  all: rewrite lenN_app, Hk; destruct (stitch b' (k + lenN p) rest) as [[p2 t2] offs]; rewrite <- ?app_assoc; reflexivity.
Qed.

Definition addhd (o : err) (K : spec3) : spec3 :=
  let '(D, E, offss) := K in (D, E, match offss with os :: r => (o :: os) :: r | [] => [] end).
Definition prelv (o : err) (K : spec3) : spec3 := let '(D, E, offss) := K in (D, E, [o] :: offss).

(** what [escalate] does, on the specification *)
Fixpoint esc_K (t : err) (acts : list hst) (K : spec3) : spec3 :=
  match acts with
  | [] => K
  | h :: rest =>
      match fst (on_error h t) with
      | Replace _ => addhd t K
      | Fail c => prelv t (esc_K (ECode c) rest K)
      end
  end.

Lemma esc_K_data : forall acts t K, fst (esc_K t acts K) = fst K.
Proof.
  induction acts as [|h r IH]; intros t K; cbn [esc_K]; [reflexivity|].
  destruct (fst (on_error h t)) as [b|c].
  - destruct K as [[D E] offss]. reflexivity.
  - specialize (IH (ECode c) K). destruct (esc_K (ECode c) r K) as [[D E] offss]. exact IH.
Qed.

(** the OnError arguments a handler has received *)
Definition oel (h : hst) : list err :=
  flat_map (fun x => match x with HOnError e => [e] | HDone => [] end) (h_log h).
Lemma oel_done h : oel (done h) = oel h.
Proof. unfold oel, done. cbn. rewrite flat_map_app. cbn. now rewrite app_nil_r. Qed.
Lemma oel_on_error h t : oel (snd (on_error h t)) = oel h ++ [t].
Proof. unfold oel. rewrite on_error_log, flat_map_app. reflexivity. Qed.

Lemma map_oel_done hs : map oel (map done hs) = map oel hs.
Proof. rewrite map_map. apply map_ext. intros h. apply oel_done. Qed.

Lemma Forall2_len {A B} (R : A -> B -> Prop) l l' : Forall2 R l l' -> length l = length l'.
Proof. induction 1; cbn; congruence. Qed.

Fixpoint zipo (logs : list (list err)) (offss : list (list err)) : list (list err) :=
  match logs, offss with
  | l :: ls, o :: os => (l ++ o) :: zipo ls os
  | _, _ => []
  end.

Lemma stitch_from_fail x t h c :
  t <> EEof -> fst (on_error h t) = Fail c -> stitch_from x t (h_answers h) = (x, ECode c, [t]).
Proof.
  unfold on_error. intros Hne Ho. destruct (h_answers h) as [|[b|c'] r]; cbn in Ho; inv Ho;
    destruct t; try congruence; reflexivity.
Qed.

Lemma esc_spec : forall acts t ob e' passed act' x K,
  t <> EEof -> escalate t acts = ((ob, e'), passed, act') ->
  match ob with
  | Some b => forall p' t', piece_of b (lenN x) = (p', t') ->
                            stitch_stack (x ++ p') t' (map h_answers act') = K
  | None => K = (x, e', [])
  end ->
  match ob with
  | Some b => forall p' t', piece_of b (lenN x) = (p', t') ->
                            stitch_stack x t (map h_answers acts) = esc_K t acts K
  | None => stitch_stack x t (map h_answers acts) = esc_K t acts K
  end.
Proof.
  induction acts as [|h rest IH]; intros t ob e' passed act' x K Hne He HK; cbn [escalate] in He.
  - inv He. subst K. reflexivity.
  - destruct (on_error h t) as [a h'] eqn:Ho. cbn [map stitch_stack esc_K]. rewrite Ho. cbn [fst].
    destruct a as [b|c].
    + injection He as Eob Ee Ep Ea; subst ob e' passed act'. intros p' t' Hp. specialize (HK _ _ Hp). cbn [map stitch_stack] in HK.
      rewrite (on_error_replace _ _ _ _ Ho).
      rewrite (stitch_as_from x b (lenN x) (h_answers h') p' t' eq_refl Hp) in HK.
      assert (Hsf : stitch_from x t (Replace b :: h_answers h') =
                    let '(p2, t2, offs) := stitch b (lenN x) (h_answers h') in (x ++ p2, t2, t :: offs))
        by (destruct t; try congruence; reflexivity).
      rewrite Hsf.
      destruct (stitch b (lenN x) (h_answers h')) as [[d t2] offs].
      destruct (stitch_stack (x ++ d) t2 (map h_answers rest)) as [[p3 t3] offss].
      subst K. reflexivity.
    + destruct (escalate (ECode c) rest) as [[r0 passed0] act0] eqn:Hr. destruct r0 as [ob0 e0]. injection He as Eob Ee Ep Ea; subst ob0 e0 passed act0.
      assert (Hf : stitch_from x t (h_answers h) = (x, ECode c, [t]))
        by (apply stitch_from_fail; [exact Hne|rewrite Ho; reflexivity]).
      rewrite Hf.
      specialize (IH (ECode c) ob e' passed0 act' x K ltac:(congruence) Hr HK).
      destruct ob as [b|].
      * intros p' t' Hp. rewrite (IH _ _ Hp). destruct (esc_K (ECode c) rest K) as [[D E] offss]. reflexivity.
      * rewrite IH. destruct (esc_K (ECode c) rest K) as [[D E] offss]. reflexivity.
Qed.

Lemma esc_logs : forall acts t ob e' passed act' fin2 K,
  escalate t acts = ((ob, e'), passed, act') ->
  match ob with
  | Some _ => map oel fin2 = zipo (map oel act') (snd K) /\ length (snd K) = length act'
  | None => fin2 = [] /\ snd K = []
  end ->
  map oel (map done passed ++ fin2) = zipo (map oel acts) (snd (esc_K t acts K)) /\
  length (snd (esc_K t acts K)) = length acts /\
  (acts <> [] -> exists h, hd_error (map done passed ++ fin2) = Some h /\ In t (oel h)).
Proof.
  induction acts as [|h rest IH]; intros t ob e' passed act' fin2 K He HK; cbn [escalate] in He.
  - inv He. destruct HK as (-> & HK). cbn. rewrite HK. rsplit; auto. congruence.
  - destruct (on_error h t) as [a h'] eqn:Ho. cbn [map esc_K]. rewrite Ho. cbn [fst].
    pose proof (oel_on_error h t) as Hl. rewrite Ho in Hl. cbn [snd] in Hl.
    destruct a as [b|c].
    + injection He as Eob Ee Ep Ea; subst ob e' passed act'. destruct HK as (HK & Hlen). cbn [app map]. cbn [map length] in HK, Hlen.
      destruct K as [[D E] offss]. cbn [snd addhd] in *.
      destruct offss as [|os r]; [discriminate|]. cbn [zipo length] in *.
      destruct fin2 as [|f fin2']; [discriminate|]. cbn [map] in HK. inversion HK as [[Hf Hr]].
      rsplit.
      * cbn [map]. rewrite Hf, Hr, Hl. rewrite <- app_assoc. reflexivity.
      * exact Hlen.
      * intros _. exists f. split; [reflexivity|]. rewrite Hf, Hl. apply in_or_app. left. apply in_or_app. right. left. reflexivity.
    + destruct (escalate (ECode c) rest) as [[r0 passed0] act0] eqn:Hr. destruct r0 as [ob0 e0]. injection He as Eob Ee Ep Ea; subst ob0 e0 passed act0.
      destruct (IH _ _ _ _ _ fin2 K Hr HK) as (Hm & Hlen & _).
      destruct (esc_K (ECode c) rest K) as [[D E] offss]. cbn [snd prelv] in *.
      cbn [app map zipo length]. rsplit.
      * rewrite Hm, oel_done, Hl. reflexivity.
      * rewrite Hlen. reflexivity.
      * intros _. exists (done h'). split; [reflexivity|]. rewrite oel_done, Hl. apply in_or_app. right. left. reflexivity.
Qed.

Definition lv (w : world) : list hst := w_dn w ++ w_act w.

Section GenericStackStitch.
  Variable S : Type.
  Variable open : bufscript -> N -> S.
  Variable dr : S -> bytes -> err -> S -> Prop.
  Hypothesis exact : forall b k p t s', dr (open b k) p t s' -> t <> EFuel -> wf_buf b -> piece_of b k = (p, t).

  (** [sst cur k acts out e fin]: from the reader [cur] with [k] bytes delivered
      and the active levels [acts], the consumer receives [out], then [e];
      [fin]: the levels afterwards, in the same order. *)
  Inductive sst : S -> N -> list hst -> bytes -> err -> list hst -> Prop :=
  | ss_eof cur k acts p cur' : dr cur p EEof cur' -> sst cur k acts p EEof acts
  | ss_fail cur k acts p t cur' e' passed :
      dr cur p t cur' -> t <> EEof -> escalate t acts = ((None, e'), passed, []) ->
      sst cur k acts p e' passed
  | ss_replace cur k acts p t cur' b e0 passed act' p2 e fin :
      dr cur p t cur' -> t <> EEof -> escalate t acts = ((Some b, e0), passed, act') ->
      sst (open b (k + lenN p)) (k + lenN p) act' p2 e fin ->
      sst cur k acts (p ++ p2) e (map done passed ++ fin).

  Lemma sst_step cur c cur' k acts out e fin :
    (forall p t s', dr cur' p t s' -> dr cur (c ++ p) t s') ->
    sst cur' (k + lenN c) acts out e fin -> sst cur k acts (c ++ out) e fin.
  Proof.
    intros Hstep Hs. inversion Hs; subst.
    - eapply ss_eof. apply Hstep. eassumption.
    - eapply ss_fail; [apply Hstep; eassumption|assumption|assumption].
    - rewrite app_assoc. eapply ss_replace; [apply Hstep; eassumption|assumption|eassumption|].
      rewrite lenN_app, N.add_assoc. assumption.
  Qed.

  Definition hs_wf (acts : list hst) : Prop := Forall (fun h => Forall wf_ans (h_answers h)) acts.
  Definition no_fuel_logged (hs : list hst) : Prop := Forall (fun h => ~ In EFuel (oel h)) hs.

  Lemma on_error_wf h t a h' :
    on_error h t = (a, h') -> Forall wf_ans (h_answers h) -> wf_ans a /\ Forall wf_ans (h_answers h').
  Proof. exact (on_error_ok wf_buf h t a h'). Qed.
  Lemma escalate_wf : forall acts t ob e' passed act',
    escalate t acts = ((ob, e'), passed, act') -> hs_wf acts ->
    hs_wf act' /\ match ob with Some b => wf_buf b | None => True end.
  Proof. intros acts t ob e' passed act' He Hw. exact (proj2 (escalate_ok wf_buf _ _ _ _ _ _ He Hw)). Qed.

  Lemma offered_not_fuel l t :
    no_fuel_logged l -> (exists h, hd_error l = Some h /\ In t (oel h)) -> t <> EFuel.
  Proof.
    intros Hnf (h & Hh & Hin) ->. destruct l as [|h0 l]; [discriminate|]. inv Hh.
    inversion Hnf; auto.
  Qed.

  Theorem sst_is_stitch_stack : forall cur k acts out e fin,
    sst cur k acts out e fin ->
    forall b pre p t, cur = open b k -> lenN pre = k -> piece_of b k = (p, t) ->
    wf_buf b -> hs_wf acts -> acts <> [] -> no_fuel_logged fin -> e <> EFuel ->
    exists offss,
      stitch_stack (pre ++ p) t (map h_answers acts) = (pre ++ out, e, offss) /\
      map oel fin = zipo (map oel acts) offss /\ length offss = length acts.
  Proof.
    induction 1 as [cur k acts p0 cur' Hd|cur k acts p0 t0 cur' e' passed Hd Hne He
                   |cur k acts p0 t0 cur' b1 e0 passed act' p2 e fin Hd Hne He _ IH];
      intros b pre p t -> Hk Hp Hwf Hw Hnn Hnf Hef.
    - rewrite (exact _ _ _ _ _ Hd ltac:(congruence) Hwf) in Hp. inv Hp.
      rewrite stitch_stack_eof. eexists. split; [reflexivity|]. split.
      + clear. induction acts as [|h r IH]; cbn [map zipo]; [reflexivity|]. rewrite app_nil_r. f_equal. exact IH.
      + now rewrite !map_length.
    - destruct (esc_logs _ _ _ _ _ _ [] (pre ++ p0, e', []) He (conj eq_refl eq_refl)) as (Hm & Hlen & Hhd).
      rewrite app_nil_r in *.
      assert (Ht0 : t0 <> EFuel).
      { apply (offered_not_fuel (map done passed)); [|exact (Hhd Hnn)].
        unfold no_fuel_logged in *. rewrite Forall_map. revert Hnf. apply Forall_impl. intros h. now rewrite oel_done. }
      rewrite (exact _ _ _ _ _ Hd Ht0 Hwf) in Hp. inv Hp.
      pose proof (esc_spec _ _ _ _ _ _ (pre ++ p) (pre ++ p, e', []) Hne He eq_refl) as Hs. cbn beta iota in Hs.
      rewrite Hs. pose proof (esc_K_data acts t (pre ++ p, e', [])) as HDE.
      destruct (esc_K t acts (pre ++ p, e', [])) as [[D E] offss]. cbn [fst] in HDE. inv HDE.
      exists offss. cbn [snd] in *. rewrite map_oel_done in Hm. auto.
    - (* a replacement: first the rest of the run *)
      destruct (escalate_wf _ _ _ _ _ _ He Hw) as (Hw' & Hwb).
      assert (Hnf2 : no_fuel_logged fin) by (unfold no_fuel_logged in *; apply Forall_app in Hnf; exact (proj2 Hnf)).
      pose proof (escalate_nonempty _ _ _ _ _ _ He Hnn) as Hact'.
      destruct (piece_of b1 (k + lenN p0)) as [p' t'] eqn:Hp'.
      destruct (IH b1 (pre ++ p0) p' t' eq_refl ltac:(rewrite lenN_app; lia) Hp' Hwb Hw' Hact' Hnf2 Hef)
        as (offss2 & Hs2 & Hm2 & Hl2).
      destruct (esc_logs _ _ _ _ _ _ fin (pre ++ p0 ++ p2, e, offss2) He (conj Hm2 Hl2)) as (Hm & Hlen & Hhd).
      pose proof (offered_not_fuel _ _ Hnf (Hhd Hnn)) as Ht0.
      rewrite (exact _ _ _ _ _ Hd Ht0 Hwf) in Hp. inv Hp.
      assert (HKs : forall p'0 t'0, piece_of b1 (lenN (pre ++ p)) = (p'0, t'0) ->
                stitch_stack ((pre ++ p) ++ p'0) t'0 (map h_answers act') = (pre ++ p ++ p2, e, offss2)).
      { intros p'0 t'0 Hq. rewrite lenN_app in Hq. rewrite Hp' in Hq. inv Hq. rewrite Hs2, <- app_assoc. reflexivity. }
      pose proof (esc_spec _ _ _ _ _ _ (pre ++ p) (pre ++ p ++ p2, e, offss2) Hne He HKs) as Hs. cbn beta iota in Hs.
      rewrite lenN_app in Hs. rewrite (Hs _ _ Hp').
      pose proof (esc_K_data acts t (pre ++ p ++ p2, e, offss2)) as HDE.
      destruct (esc_K t acts (pre ++ p ++ p2, e, offss2)) as [[D E] offss]. cbn [fst] in HDE. inv HDE.
      exists offss. cbn [snd] in *. auto.
  Qed.

  Corollary sst_from_start b (w w' : world) out e fin :
    sst (open b 0) 0 (w_act w) out e fin -> w_dn w ++ fin = lv w' ->
    wf_buf b -> hs_wf (w_act w) -> w_act w <> [] -> e <> EFuel -> no_fuel_logged (lv w') ->
    exists offss,
      (let '(p, t) := piece_of b 0 in stitch_stack p t (map h_answers (w_act w))) = (out, e, offss) /\
      map oel (lv w') = map oel (w_dn w) ++ zipo (map oel (w_act w)) offss /\ length offss = length (w_act w).
  Proof.
    intros Hs Hlv Hwf Hw Hnn Hne Hnf. destruct (piece_of b 0) as [p t] eqn:Hp.
    unfold no_fuel_logged in Hnf. rewrite <- Hlv in *. apply Forall_app in Hnf.
    destruct (sst_is_stitch_stack _ _ _ _ _ _ Hs b [] p t eq_refl eq_refl Hp Hwf Hw Hnn (proj2 Hnf) Hne) as (offss & Hss & Hm & Hl).
    exists offss. rewrite map_app, Hm. auto.
  Qed.
End GenericStackStitch.

Lemma escalate_none_err : forall acts t e' passed act',
  escalate t acts = ((None, e'), passed, act') -> act' = [] /\ (e' = t \/ exists c, e' = ECode c).
Proof. exact escalate_failed. Qed.

Section SchStitched.
  Variable ifuel : nat.
  Variable max : N.
  Notation urd := (ucr_read ifuel max).
  Notation sstc := (sst ucr (ucr_open ifuel) (drains urd)).

  Lemma sst_cons cur c cur' k acts out e fin :
    urd cur = ((c, ENone), cur') -> sstc cur' (k + lenN c) acts out e fin -> sstc cur k acts (c ++ out) e fin.
  Proof.
    intros Hr. apply sst_step. intros p t s'. eapply drains_step. exact Hr.
  Qed.

  (** one Read, with the replacements performed within it *)
  Lemma sch_read_inv : forall f r c e r1,
    sch_read ifuel f max r = ((c, e), r1) -> e <> EFuel ->
    (e = ENone ->
       forall out e2 fin, sstc (sc_cur r1) (sc_off r1) (w_act (sc_w r1)) out e2 fin ->
         exists fin0, sstc (sc_cur r) (sc_off r) (w_act (sc_w r)) (c ++ out) e2 fin0 /\
                      w_dn (sc_w r) ++ fin0 = w_dn (sc_w r1) ++ fin) /\
    (e <> ENone ->
       c = [] /\
       exists fin0, sstc (sc_cur r) (sc_off r) (w_act (sc_w r)) [] e fin0 /\
                    w_dn (sc_w r) ++ fin0 = lv (sc_w r1)).
  Proof.
    induction f as [|f IH]; intros r c e r1 Hr Hnf; [inv Hr; congruence|].
    destruct (urd (sc_cur r)) as [[chunk e0] cur'] eqn:Hu. destruct (op_done e0) eqn:Hop.
    - cbn [sch_read] in Hr. rewrite Hu in Hr. destruct e0; try discriminate Hop; inv Hr.
      + split; [|congruence]. intros _ out e2 fin Hs. exists fin. split; [|reflexivity].
        eapply sst_cons; eassumption.
      + split; [congruence|]. intros _. split; [reflexivity|]. exists (w_act (sc_w r)). split; [|reflexivity].
        eapply ss_eof. eapply drains_end; [eassumption|congruence].
    - rewrite (sch_read_io _ _ _ _ _ _ _ Hu Hop) in Hr. destruct (op_done_false _ Hop) as (Hn & He).
      destruct (escalate e0 (w_act (sc_w r))) as [[[ob e'] passed] act'] eqn:Hesc.
      assert (Hd0 : drains urd (sc_cur r) [] e0 cur') by (eapply drains_end; eassumption).
      destruct ob as [b|].
      + destruct (IH _ _ _ _ Hr Hnf) as (IH1 & IH2). cbn [sc_cur sc_off sc_w after_replace w_dn w_act] in IH1, IH2.
        assert (Hrep : forall out e2 fin2,
                  sstc (ucr_open ifuel b (sc_off r)) (sc_off r) act' out e2 fin2 ->
                  sstc (sc_cur r) (sc_off r) (w_act (sc_w r)) out e2 (map done passed ++ fin2)).
        { intros out e2 fin2 Hs2. change out with ([] ++ out). eapply ss_replace; [exact Hd0|exact He|exact Hesc|].
          rewrite lenN_nil, N.add_0_r. exact Hs2. }
        split.
        * intros Ee out e2 fin Hs. destruct (IH1 Ee out e2 fin Hs) as (fin2 & Hs2 & Hw2).
          exists (map done passed ++ fin2). split; [apply Hrep; exact Hs2|]. rewrite app_assoc. exact Hw2.
        * intros Ee. destruct (IH2 Ee) as (-> & fin2 & Hs2 & Hw2). split; [reflexivity|].
          exists (map done passed ++ fin2). split; [apply Hrep; exact Hs2|]. rewrite app_assoc. exact Hw2.
      + destruct (escalate_none_err _ _ _ _ _ Hesc) as (-> & He').
        inv Hr. split; [intros ->; destruct He' as [?|(c0 & ?)]; congruence|].
        intros _. split; [reflexivity|]. exists passed. split; [|reflexivity].
        eapply ss_fail; [exact Hd0|exact He|exact Hesc].
  Qed.

  Theorem sch_stitched fuel r out e r' :
    drains (sch_read ifuel fuel max) r out e r' -> e <> EFuel ->
    exists fin, sstc (sc_cur r) (sc_off r) (w_act (sc_w r)) out e fin /\
                w_dn (sc_w r) ++ fin = lv (sc_w r').
  Proof.
    induction 1 as [r c e r1 Hr Hnn|r c r1 bs e r2 Hr _ IH]; intros Hne.
    - destruct (proj2 (sch_read_inv _ _ _ _ _ Hr Hne) Hnn) as (_ & fin0 & Hs & Hw). eauto.
    - destruct (IH Hne) as (fin & Hs & Hw).
      destruct (proj1 (sch_read_inv _ _ _ _ _ Hr ltac:(congruence)) eq_refl _ _ _ Hs) as (fin0 & Hs0 & Hw0).
      exists fin0. split; [exact Hs0|]. rewrite Hw0. exact Hw.
  Qed.
End SchStitched.

Section ShrStitched.
  Variable fuel : nat.
  Notation urdr := (urd_read fuel).
  Notation sstr := (sst urd (urd_open fuel) (rdrains urdr)).

  Lemma ssr_cons cap cur c cur' k acts out e fin :
    urdr cap cur = ((c, ENone), cur') -> sstr cur' (k + lenN c) acts out e fin -> sstr cur k acts (c ++ out) e fin.
  Proof.
    intros Hr. apply sst_step. intros p t s'. eapply rdrains_step. exact Hr.
  Qed.

  Theorem shr_stitched r out e r' :
    rdrains (shr_read fuel) r out e r' ->
    exists fin, sstr (sr_cur r) (sr_off r) (w_act (sr_w r)) out e fin /\
                w_dn (sr_w r) ++ fin = lv (sr_w r').
  Proof.
    induction 1 as [cap r c e r1 Hr Hne|cap r c r1 bs e r2 Hr _ IH];
      destruct (urd_read fuel cap (sr_cur r)) as [[data t] cur'] eqn:Hu; destruct (op_done t) eqn:Hop.
    - rewrite (shr_read_done _ _ _ _ _ _ Hu Hop) in Hr. inv Hr. destruct e; try discriminate Hop; [congruence|].
      exists (w_act (sr_w r)). split; [|reflexivity]. eapply ss_eof. eapply rdrains_end; [eassumption|congruence].
    - rewrite (shr_read_io _ _ _ _ _ _ Hu Hop) in Hr. destruct (op_done_false _ Hop) as (Hn & He).
      destruct (escalate t (w_act (sr_w r))) as [[[ob e'] passed] act'] eqn:Hesc.
      destruct ob as [b|]; inv Hr; [congruence|]. destruct (escalate_none_err _ _ _ _ _ Hesc) as (-> & _).
      exists passed. split; [|reflexivity]. eapply ss_fail; [eapply rdrains_end; eassumption|exact He|exact Hesc].
    - rewrite (shr_read_done _ _ _ _ _ _ Hu Hop) in Hr. inv Hr. destruct IH as (fin & Hs & Hw).
      exists fin. split; [eapply ssr_cons; eassumption|exact Hw].
    - rewrite (shr_read_io _ _ _ _ _ _ Hu Hop) in Hr. destruct (op_done_false _ Hop) as (Hn & He).
      destruct (escalate t (w_act (sr_w r))) as [[[ob e'] passed] act'] eqn:Hesc.
      destruct ob as [b|]; inv Hr; [|destruct (escalate_none_err _ _ _ _ _ Hesc) as (_ & [?|(cc & ?)]); congruence].
      destruct IH as (fin & Hs & Hw). cbn [sr_cur sr_off sr_w after_replace w_dn w_act] in Hs, Hw.
      exists (map done passed ++ fin). split.
      + eapply ss_replace; [eapply rdrains_end; eassumption|exact He|exact Hesc|exact Hs].
      + rewrite app_assoc. exact Hw.
  Qed.
End ShrStitched.

Definition oews (w : world) : list (list err) := map oel (lv w).

Theorem stack_chunk_stream_is_stitch_stack ifuel fuel max b w out e r' :
  drains (sch_read ifuel fuel max) (sch_init ifuel b w) out e r' ->
  wf_buf b -> hs_wf (w_act w) -> w_act w <> [] ->
  e <> EFuel -> Forall (fun h => ~ In EFuel (oel h)) (lv (sc_w r')) ->
  exists offss,
    (let '(p, t) := piece_of b 0 in stitch_stack p t (map h_answers (w_act w))) = (out, e, offss) /\
    oews (sc_w r') = map oel (w_dn w) ++ zipo (map oel (w_act w)) offss /\
    length offss = length (w_act w).
Proof.
  intros Hd Hwf Hw Hnn Hne Hnf. destruct (sch_stitched _ _ _ _ _ _ _ Hd Hne) as (fin & Hs & Hlv).
  exact (sst_from_start _ _ _ (piece_exact ifuel max) b w (sc_w r') out e fin Hs Hlv Hwf Hw Hnn Hne Hnf).
Qed.

Theorem stack_reader_stream_is_stitch_stack fuel b w out e r' :
  rdrains (shr_read fuel) (shr_init fuel b w) out e r' ->
  wf_buf b -> hs_wf (w_act w) -> w_act w <> [] ->
  e <> EFuel -> Forall (fun h => ~ In EFuel (oel h)) (lv (sr_w r')) ->
  exists offss,
    (let '(p, t) := piece_of b 0 in stitch_stack p t (map h_answers (w_act w))) = (out, e, offss) /\
    oews (sr_w r') = map oel (w_dn w) ++ zipo (map oel (w_act w)) offss /\
    length offss = length (w_act w).
Proof.
  intros Hd Hwf Hw Hnn Hne Hnf. destruct (shr_stitched _ _ _ _ _ Hd) as (fin & Hs & Hlv).
  exact (sst_from_start _ _ _ (rpiece_exact fuel) b w (sr_w r') out e fin Hs Hlv Hwf Hw Hnn Hne Hnf).
Qed.
