(** C15, model M1: invariants of the multiplexer LTS. *)
From Coq Require Import List ZArith NArith Bool Arith Lia.
From BBS Require Import Buffer.Mux.
Import ListNotations.

Section P.
  Variable nchunks : nat.
  Variable term : Z.
  Notation items := (items nchunks term).
  Notation item_at := (item_at nchunks term).
  Notation step := (step nchunks term).
  Notation run := (run nchunks term).

  Definition b2n (b : bool) : nat := if b then 1 else 0.

  Lemma items_S k : items (S k) = items k ++ [item_at k].
  Proof. unfold Mux.items. rewrite seq_S, map_app. reflexivity. Qed.

  Lemma is_st_iff s c : is_st s c = true <-> st c = s.
  Proof. unfold is_st. destruct s, (st c); split; congruence. Qed.

  Lemma count_cons s c l : count s (c :: l) = b2n (is_st s c) + count s l.
  Proof. unfold count. cbn. destruct (is_st s c); reflexivity. Qed.

  Lemma count_upd s l : forall i c c', nth_error l i = Some c ->
    count s (upd i c' l) + b2n (is_st s c) = count s l + b2n (is_st s c').
  Proof.
    induction l as [|h t IH]; intros [|i] c c' H; cbn in H; try discriminate.
    - inversion H; subst. cbn [upd]. rewrite !count_cons. lia.
    - cbn [upd]. rewrite !count_cons. specialize (IH i c c' H). lia.
  Qed.

  Lemma count_pos s l i c : nth_error l i = Some c -> is_st s c = true -> 1 <= count s l.
  Proof.
    revert i. induction l as [|h t IH]; intros [|i] H Hs; cbn in H; try discriminate.
    - inversion H; subst. rewrite count_cons, Hs. cbn. lia.
    - rewrite count_cons. specialize (IH i H Hs). lia.
  Qed.

  Lemma count_zero s l : count s l = 0 -> forall c, In c l -> is_st s c = false.
  Proof.
    induction l as [|h t IH]; intros H c Hin; cbn in Hin; [contradiction|destruct Hin as [->|Hin]].
    - rewrite count_cons in H. destruct (is_st s c); [cbn in H; lia|reflexivity].
    - apply IH; [|exact Hin]. rewrite count_cons in H. lia.
  Qed.

  Lemma In_upd {A} (l : list A) : forall i x y, In y (upd i x l) -> y = x \/ In y l.
  Proof.
    induction l as [|h t IH]; intros i x y H; destruct i; cbn in H; try contradiction.
    - destruct H as [<-|H]; [left; reflexivity|right; right; exact H].
    - destruct H as [<-|H]; [right; left; reflexivity|].
      destruct (IH i x y H); [left; assumption|right; right; assumption].
  Qed.

  Lemma upd_map_upd {A} (f : A -> A) (l : list A) : forall i x y,
    upd i x (map f (upd i y l)) = upd i x (map f l).
  Proof.
    induction l as [|h t IH]; intros [|i] x y; cbn; try reflexivity.
    rewrite IH. reflexivity.
  Qed.

  Lemma nth_error_map_some {A} (f : A -> A) l i c :
    nth_error l i = Some c -> nth_error (map f l) i = Some (f c).
  Proof. intros H. rewrite nth_error_map, H. reflexivity. Qed.

  Lemma nth_error_upd_same {A} (l : list A) : forall i c x,
    nth_error l i = Some c -> nth_error (upd i x l) i = Some x.
  Proof. induction l as [|h t IH]; intros [|i] c x H; cbn in *; try discriminate; [reflexivity|eapply IH; exact H]. Qed.

  Lemma length_upd {A} (l : list A) : forall i x, length (upd i x l) = length l.
  Proof. induction l as [|h t IH]; intros [|i] x; cbn; try reflexivity. rewrite IH. reflexivity. Qed.

  Lemma count_wake_read it l :
    count CNew (wake_read it l) = count CNew l /\
    count CWaitReg (wake_read it l) = count CWaitReg l /\
    count CReady (wake_read it l) = count CReady l + count CWaitRead l /\
    count CWaitRead (wake_read it l) = 0 /\
    count CDone (wake_read it l) = count CDone l.
  Proof.
    induction l as [|h t IH]; [cbn; repeat split; reflexivity|].
    cbn [wake_read map]. fold (wake_read it t). rewrite !count_cons.
    destruct IH as (I1 & I2 & I3 & I4 & I5). rewrite I1, I2, I3, I4, I5.
    unfold is_st. destruct (st h) eqn:E; cbn [st b2n]; rewrite ?E; cbn; repeat split; lia.
  Qed.

  Lemma count_wake_reg l :
    count CNew (wake_reg l) = count CNew l /\
    count CWaitReg (wake_reg l) = 0 /\
    count CReady (wake_reg l) = count CReady l + count CWaitReg l /\
    count CWaitRead (wake_reg l) = count CWaitRead l /\
    count CDone (wake_reg l) = count CDone l.
  Proof.
    induction l as [|h t IH]; [cbn; repeat split; reflexivity|].
    cbn [wake_reg map]. fold (wake_reg t). rewrite !count_cons.
    destruct IH as (I1 & I2 & I3 & I4 & I5). rewrite I1, I2, I3, I4, I5.
    unfold is_st. destruct (st h) eqn:E; cbn [st set_st b2n]; rewrite ?E; cbn; repeat split; lia.
  Qed.

  Lemma In_wake_read it l x : In x (wake_read it l) ->
    exists c, In c l /\
      ((st c = CWaitRead /\ st x = CReady /\ got x = got c ++ [it]) \/ (st c <> CWaitRead /\ x = c)).
  Proof.
    unfold wake_read. rewrite in_map_iff. intros (c & <- & Hin). exists c. split; [exact Hin|].
    unfold is_st. destruct (st c) eqn:E; cbn; try (right; split; [discriminate|reflexivity]).
    left. repeat split.
  Qed.

  Lemma In_wake_reg l x : In x (wake_reg l) -> exists c, In c l /\ got x = got c.
  Proof.
    unfold wake_reg. rewrite in_map_iff. intros (c & <- & Hin). exists c. split; [exact Hin|].
    destruct (is_st CWaitReg c); reflexivity.
  Qed.

  Lemma map_upd {A B} (f : A -> B) (l : list A) : forall i x, map f (upd i x l) = upd i (f x) (map f l).
  Proof. induction l as [|h t IH]; intros [|i] x; cbn; try reflexivity. rewrite IH. reflexivity. Qed.

  Lemma upd_same {A} (l : list A) : forall i x, nth_error l i = Some x -> upd i x l = l.
  Proof.
    induction l as [|h t IH]; intros [|i] x H; cbn in H; try discriminate; cbn [upd].
    - inversion H. reflexivity.
    - rewrite (IH i x H). reflexivity.
  Qed.

  Inductive moves (it : Z) (c : cons) : cons -> Prop :=
  | mv_register s1 : st c = CNew -> s1 = CReady \/ s1 = CWaitReg -> moves it c (set_st c s1)
  | mv_close : st c = CReady -> reads c = 0 -> moves it c (set_st c CDone)
  | mv_read k : st c = CReady -> reads c = S k -> moves it c (mkC k (disc c) (csz c) CReady (got c ++ [it]))
  | mv_park k : st c = CReady -> reads c = S k -> moves it c (mkC k (disc c) (csz c) CWaitRead (got c)).

  Definition woken (it : Z) (l l' : list cons) : Prop :=
    l' = l \/ l' = wake_reg l \/ l' = wake_read it l.

  Lemma step_cs s i s' : step s i = Some s' ->
    (panicked s' = true /\ cs s' = cs s) \/
    exists c c' l, nth_error (cs s) i = Some c /\ moves (item_at (srcpos s)) c c' /\
      woken (item_at (srcpos s)) (cs s) l /\ cs s' = upd i c' l.
  Proof.
    unfold Mux.step, woken. destruct (panicked s); [discriminate|].
    destruct (nth_error (cs s) i) as [c|] eqn:Hn; [|discriminate].
    destruct (st c) eqn:Hst; try discriminate; intros H; inversion H; subst s'; clear H.
    - unfold do_register. destruct (remaining s) as [|[|r]]; [left; split; reflexivity|right..]; cbn [cs].
      + exists c, (set_st c CReady), (wake_reg (cs s)). repeat split; auto using mv_register.
      + exists c, (set_st c CWaitReg), (cs s). repeat split; auto using mv_register.
    - destruct (reads c) as [|k] eqn:Hreads.
      + unfold do_close. destruct (pending s) as [|[|p]]; [left; split; reflexivity|right..].
        * exists c, (set_st c CDone). destruct (waiting s); cbn [cs].
          -- exists (cs s). repeat split; auto using mv_close.
          -- exists (wake_read (item_at (srcpos s)) (cs s)). repeat split; auto using mv_close.
             unfold wake_read. rewrite map_upd. reflexivity.
        * exists c, (set_st c CDone), (cs s). repeat split; auto using mv_close.
      + unfold do_read. rewrite Hreads.
        destruct (pending s) as [|[|p]]; [left; split; reflexivity|right..]; cbn [cs reads Init.Nat.pred].
        * eexists c, _, (wake_read (item_at (srcpos s)) (cs s)). repeat split; eauto using mv_read.
        * eexists c, _, (cs s). repeat split; eauto. apply (mv_park _ _ k Hst Hreads).
  Qed.

  Lemma nth_wake_reg_other l i c : nth_error l i = Some c -> st c <> CWaitReg ->
    nth_error (wake_reg l) i = Some c.
  Proof.
    intros H Hs. unfold wake_reg. rewrite (nth_error_map_some _ _ _ _ H).
    unfold is_st. destruct (st c); try reflexivity. contradiction.
  Qed.

  Lemma nth_wake_read_other it l i c : nth_error l i = Some c -> st c <> CWaitRead ->
    nth_error (wake_read it l) i = Some c.
  Proof.
    intros H Hs. unfold wake_read. rewrite (nth_error_map_some _ _ _ _ H).
    unfold is_st. destruct (st c); try reflexivity. contradiction.
  Qed.

  Lemma woken_nth it l l' i c c' : woken it l l' -> moves it c c' -> nth_error l i = Some c ->
    nth_error l' i = Some c.
  Proof.
    intros [-> | [-> | ->]] Hm Hn; [exact Hn|apply nth_wake_reg_other|apply nth_wake_read_other]; try exact Hn;
      destruct Hm; congruence.
  Qed.

  Definition Inv (s : mst) : Prop :=
    panicked s = false /\
    if created s then
      count CNew (cs s) = 0 /\ count CWaitReg (cs s) = 0 /\
      pending s = count CReady (cs s) /\ length (waiting s) = count CWaitRead (cs s) /\
      (forall c, In c (cs s) -> st c <> CDone -> got c = items (srcpos s)) /\
      (forall c, In c (cs s) -> exists k, k <= srcpos s /\ got c = items k) /\
      ((1 <= count CReady (cs s) /\ closed s = 0) \/
       (count CReady (cs s) = 0 /\ count CWaitRead (cs s) = 0 /\ closed s = 1))
    else
      remaining s = count CNew (cs s) /\ 1 <= remaining s /\
      length (regwait s) = count CWaitReg (cs s) /\
      count CReady (cs s) = 0 /\ count CWaitRead (cs s) = 0 /\ count CDone (cs s) = 0 /\
      srcpos s = 0 /\ closed s = 0 /\ (forall c, In c (cs s) -> got c = []).

  Lemma count_init s progs : count s (map new_cons progs) = if is_st s (mkC 0 false 0%N CNew []) then length progs else 0.
  Proof.
    induction progs as [|[[r d] z] t IH]; [destruct s; reflexivity|].
    cbn [map]. rewrite count_cons, IH. destruct s; cbn; reflexivity.
  Qed.

  Lemma init_inv progs : progs <> [] -> Inv (init progs).
  Proof.
    intros Hne. unfold Inv, init. cbn [panicked created cs remaining regwait srcpos closed].
    rewrite !count_init. cbn. repeat split; try reflexivity.
    - destruct progs; [contradiction|cbn; lia].
    - intros c Hin. apply in_map_iff in Hin. destruct Hin as ([[r d] z] & <- & _). reflexivity.
  Qed.

  Lemma all_upd {A} (Q : A -> Prop) (l : list A) i x :
    Q x -> (forall y, In y l -> Q y) -> forall y, In y (upd i x l) -> Q y.
  Proof. intros Hx Hl y Hin. apply In_upd in Hin. destruct Hin as [->|Hin]; auto. Qed.

  Lemma got_wake_read pos l :
    count CReady l = 0 -> count CNew l = 0 -> count CWaitReg l = 0 ->
    (forall c, In c l -> st c <> CDone -> got c = items pos) ->
    (forall c, In c l -> exists k, k <= pos /\ got c = items k) ->
    forall x, In x (wake_read (item_at pos) l) ->
    (st x <> CDone -> got x = items (S pos)) /\ exists k, k <= S pos /\ got x = items k.
  Proof.
    intros Hr0 Hn0 Hg0 Hgot Hpre x Hin.
    apply In_wake_read in Hin. destruct Hin as (c0 & Hin0 & [(Hs0 & Hsx & Hgx)|(Hs0 & ->)]).
    - assert (E : got x = items (S pos)).
      { rewrite Hgx, items_S. f_equal. apply Hgot; [exact Hin0|rewrite Hs0; discriminate]. }
      split; [intros _; exact E|]. exists (S pos). split; [apply le_n|exact E].
    - split.
      + (* a consumer the wake-up leaves alone is neither new, registering nor ready: it has closed *)
        intros Hnd. exfalso. pose proof (count_zero _ _ Hr0 _ Hin0) as Z1. pose proof (count_zero _ _ Hn0 _ Hin0) as Z2.
        pose proof (count_zero _ _ Hg0 _ Hin0) as Z3. unfold is_st in Z1, Z2, Z3.
        destruct (st c0); congruence.
      + destruct (Hpre c0 Hin0) as (k0 & Hk & Hg). exists k0. split; [exact (le_S _ _ Hk)|exact Hg].
  Qed.

  (* one [lia] per transition for the numeric conjuncts, told whether the source is still open:
     the checker re-evaluates every certificate *)
  Lemma created_open (A1 A2 A3 A4 B C P5 P6 : Prop) :
    A1 /\ A2 /\ A3 /\ A4 /\ B -> P5 -> P6 -> A1 /\ A2 /\ A3 /\ A4 /\ P5 /\ P6 /\ (B \/ C).
  Proof. tauto. Qed.
  Lemma created_closed (A1 A2 A3 A4 B C P5 P6 : Prop) :
    A1 /\ A2 /\ A3 /\ A4 /\ C -> P5 -> P6 -> A1 /\ A2 /\ A3 /\ A4 /\ P5 /\ P6 /\ (B \/ C).
  Proof. tauto. Qed.
  Lemma registering_parts (A1 A2 A3 A4 A5 A6 A7 A8 P9 : Prop) :
    A1 /\ A2 /\ A3 /\ A4 /\ A5 /\ A6 /\ A7 /\ A8 -> P9 ->
    A1 /\ A2 /\ A3 /\ A4 /\ A5 /\ A6 /\ A7 /\ A8 /\ P9.
  Proof. tauto. Qed.

  Ltac cnt5 H c' :=
    pose proof (count_upd CNew _ _ _ c' H);
    pose proof (count_upd CWaitReg _ _ _ c' H);
    pose proof (count_upd CReady _ _ _ c' H);
    pose proof (count_upd CWaitRead _ _ _ c' H);
    pose proof (count_upd CDone _ _ _ c' H).

  Lemma step_inv s i s' : Inv s -> step s i = Some s' -> Inv s'.
  Proof.
    intros [Hp HI] Hs. unfold Mux.step in Hs. rewrite Hp in Hs.
    destruct (nth_error (cs s) i) as [c|] eqn:Hn; [|discriminate].
    destruct (st c) eqn:Hst; try discriminate; inversion Hs; subst s'; clear Hs.
    -
      assert (Hpos : 1 <= count CNew (cs s)) by (eapply count_pos; [exact Hn|apply is_st_iff; exact Hst]).
      destruct (created s) eqn:Hc; [destruct HI as (H0 & _); lia|].
      destruct HI as (Hrem & Hrem1 & Hrw & Hr & Hwr & Hd & Hsp & Hcl & Hgot).
      unfold do_register. destruct (remaining s) as [|r] eqn:Er; [lia|].
      destruct r as [|r'].
      + (* last to register: the multiplexer is created *)
        split; [exact Hp|]. cbn [created cs pending waiting srcpos closed]. rewrite ?Hc.
        destruct (count_wake_reg (cs s)) as (W1 & W2 & W3 & W4 & W5).
        assert (Hn' : nth_error (wake_reg (cs s)) i = Some c) by (apply nth_wake_reg_other; congruence).
        cnt5 Hn' (set_st c CReady).
        unfold is_st in *. cbn [st set_st b2n] in *. rewrite Hst in *. cbn [b2n] in *.
        cbn [length]. apply created_open; [lia| |].
        * intros x Hin _. apply In_upd in Hin. rewrite Hsp. destruct Hin as [->|Hin].
          -- cbn. apply Hgot. eapply nth_error_In; exact Hn.
          -- apply In_wake_reg in Hin. destruct Hin as (c0 & Hin & ->). apply Hgot; exact Hin.
        * intros x Hin. exists 0. split; [apply Nat.le_0_l|]. apply In_upd in Hin. destruct Hin as [->|Hin].
          -- cbn. apply Hgot. eapply nth_error_In; exact Hn.
          -- apply In_wake_reg in Hin. destruct Hin as (c0 & Hin & ->). apply Hgot; exact Hin.
      + split; [exact Hp|]. cbn [created cs remaining regwait srcpos closed].
        cnt5 Hn (set_st c CWaitReg).
        unfold is_st in *. cbn [st set_st b2n] in *. rewrite Hst in *. cbn [b2n] in *.
        rewrite app_length. cbn [length].
        cbn [length]. apply registering_parts; [lia|].
        intros x Hin. apply In_upd in Hin. destruct Hin as [->|Hin]; [cbn; apply Hgot; eapply nth_error_In; exact Hn|apply Hgot; exact Hin].
    -
      assert (Hpos : 1 <= count CReady (cs s)) by (eapply count_pos; [exact Hn|apply is_st_iff; exact Hst]).
      destruct (created s) eqn:Hc; [|destruct HI as (_ & _ & _ & H0 & _); lia].
      destruct HI as (Hnew & Hwreg & Hpend & Hwait & Hgot & Hpre & Hdisj).
      assert (Hcl : closed s = 0) by (destruct Hdisj as [[_ H]|[H _]]; [exact H|lia]). clear Hdisj.
      assert (Hin_c : In c (cs s)) by (eapply nth_error_In; exact Hn).
      assert (Hgc : got c = items (srcpos s)) by (apply Hgot; [exact Hin_c|rewrite Hst; discriminate]).
      assert (HgotD : forall x, In x (upd i (set_st c CDone) (cs s)) -> st x <> CDone -> got x = items (srcpos s))
        by (apply (all_upd (fun x => st x <> CDone -> got x = items (srcpos s))); [cbn; congruence|exact Hgot]).
      assert (HpreD : forall x, In x (upd i (set_st c CDone) (cs s)) -> exists k, k <= srcpos s /\ got x = items k)
        by (apply (all_upd (fun x => exists k, k <= srcpos s /\ got x = items k)); [exact (Hpre c Hin_c)|exact Hpre]).
      destruct (reads c) as [|k] eqn:Hreads.
      +
        unfold do_close. destruct (pending s) as [|p] eqn:Ep; [lia|].
        cnt5 Hn (set_st c CDone).
        unfold is_st in *. cbn [st set_st b2n] in *. rewrite Hst in *. cbn [b2n] in *.
        destruct p as [|p'].
        * destruct (waiting s) as [|w ws] eqn:Ew.
          -- (* last to leave: the source is closed *)
             split; [exact Hp|]. cbn [created cs pending waiting srcpos closed length]. rewrite ?Hc.
             cbn [length] in Hwait.
             apply created_closed; [lia|exact HgotD|exact HpreD].
          -- (* reads on behalf of the waiting consumers *)
             split; [exact Hp|]. cbn [created cs pending waiting srcpos closed]. rewrite ?Hc.
             destruct (count_wake_read (item_at (srcpos s)) (upd i (set_st c CDone) (cs s))) as (W1 & W2 & W3 & W4 & W5).
             assert (Hz : count CReady (upd i (set_st c CDone) (cs s)) = 0 /\ count CNew (upd i (set_st c CDone) (cs s)) = 0 /\
                          count CWaitReg (upd i (set_st c CDone) (cs s)) = 0) by lia.
             destruct Hz as (Hr0 & Hn0 & Hg0).
             cbn [length] in *.
             apply created_open; [lia|intros x Hin; apply (got_wake_read _ _ Hr0 Hn0 Hg0 HgotD HpreD x Hin)..].
        * split; [exact Hp|]. cbn [created cs pending waiting srcpos closed]. rewrite ?Hc.
          apply created_open; [lia|exact HgotD|exact HpreD].
      +
        unfold do_read. destruct (pending s) as [|p] eqn:Ep; [lia|].
        destruct p as [|p'].
        * (* last to arrive: reads and shares *)
          split; [exact Hp|]. cbn [created cs pending waiting srcpos closed reads pred]. rewrite ?Hc.
          rewrite Hreads. cbn [Init.Nat.pred].
          set (it := item_at (srcpos s)).
          set (cnew := mkC k (disc c) (csz c) CReady (got c ++ [it])).
          unfold wake_read.
          rewrite <- (upd_map_upd _ (cs s) i cnew (set_st c CDone)). fold (wake_read it (upd i (set_st c CDone) (cs s))).
          cnt5 Hn (set_st c CDone).
          destruct (count_wake_read it (upd i (set_st c CDone) (cs s))) as (W1 & W2 & W3 & W4 & W5).
          assert (Hn' : nth_error (wake_read it (upd i (set_st c CDone) (cs s))) i = Some (set_st c CDone)).
          { unfold wake_read.
            rewrite (nth_error_map_some _ _ _ _ (nth_error_upd_same _ _ _ (set_st c CDone) Hn)).
            reflexivity. }
          cnt5 Hn' cnew.
          unfold is_st in *. cbn [st set_st b2n cnew] in *. rewrite Hst in *. cbn [b2n] in *.
          assert (Hz : count CReady (upd i (set_st c CDone) (cs s)) = 0 /\ count CNew (upd i (set_st c CDone) (cs s)) = 0 /\
                       count CWaitReg (upd i (set_st c CDone) (cs s)) = 0) by lia.
          destruct Hz as (Hr0 & Hn0 & Hg0).
          assert (Enew : got c ++ [it] = items (S (srcpos s))) by (rewrite Hgc, items_S; reflexivity).
          cbn [length]. apply created_open; [lia| |].
          -- apply (all_upd (fun x => st x <> CDone -> got x = items (S (srcpos s)))); [intros _; exact Enew|].
             intros x Hin. apply (got_wake_read _ _ Hr0 Hn0 Hg0 HgotD HpreD x Hin).
          -- apply (all_upd (fun x => exists k, k <= S (srcpos s) /\ got x = items k)).
             ++ exists (S (srcpos s)). split; [apply le_n|exact Enew].
             ++ intros x Hin. apply (got_wake_read _ _ Hr0 Hn0 Hg0 HgotD HpreD x Hin).
        * (* parks until the last one arrives *)
          split; [exact Hp|]. cbn [created cs pending waiting srcpos closed reads pred]. rewrite ?Hc.
          rewrite Hreads. cbn [Init.Nat.pred].
          cnt5 Hn (set_st (mkC k (disc c) (csz c) (st c) (got c)) CWaitRead).
          unfold is_st in *. cbn [st set_st b2n] in *. rewrite Hst in *. cbn [b2n] in *.
          rewrite app_length. cbn [length].
          apply created_open; [lia| |].
          -- apply (all_upd (fun x => st x <> CDone -> got x = items (srcpos s))); [intros _; exact Hgc|exact Hgot].
          -- apply (all_upd (fun x => exists k, k <= srcpos s /\ got x = items k)); [exact (Hpre c Hin_c)|exact Hpre].
  Qed.

  Lemma run_inv sched : forall s s', Inv s -> run s sched = Some s' -> Inv s'.
  Proof.
    induction sched as [|i rest IH]; intros s s' HI H; cbn in H.
    - inversion H; subst; exact HI.
    - destruct (step s i) as [s1|] eqn:E; [|discriminate]. eapply IH; [|exact H]. eapply step_inv; eassumption.
  Qed.

  Lemma count_pos_exists st0 l : 1 <= count st0 l -> exists i c, nth_error l i = Some c /\ is_st st0 c = true.
  Proof.
    induction l as [|h t IH]; intros H; [cbn in H; lia|].
    rewrite count_cons in H. destruct (is_st st0 h) eqn:E.
    - exists 0, h. split; [reflexivity|exact E].
    - cbn in H. destruct (IH H) as (i & c & Hn & Hc). exists (S i), c. split; assumption.
  Qed.

  Lemma count_states l :
    count CNew l + count CWaitReg l + count CReady l + count CWaitRead l + count CDone l = length l.
  Proof.
    induction l as [|h t IH]; [reflexivity|]. rewrite !count_cons. cbn [length].
    unfold is_st. destruct (st h); cbn [b2n]; lia.
  Qed.

  Lemma forallb_count s l : forallb (is_st s) l = true <-> count s l = length l.
  Proof.
    assert (Hle : forall t, count s t <= length t).
    { induction t as [|h t IH]; [apply Nat.le_refl|]. rewrite count_cons. cbn [length]. destruct (is_st s h); cbn [b2n]; lia. }
    induction l as [|h t IH]; [cbn; tauto|].
    cbn [forallb length]. rewrite count_cons. destruct (is_st s h); cbn [b2n andb].
    - rewrite IH. lia.
    - specialize (Hle t). split; [discriminate|lia].
  Qed.

  Lemma all_done_counts l :
    forallb (is_st CDone) l = true <->
    count CNew l = 0 /\ count CWaitReg l = 0 /\ count CReady l = 0 /\ count CWaitRead l = 0.
  Proof. rewrite forallb_count. pose proof (count_states l). lia. Qed.

  Lemma all_done_st s c : all_done s = true -> In c (cs s) -> st c = CDone.
  Proof. unfold all_done. rewrite forallb_forall. intros H Hin. apply is_st_iff, H, Hin. Qed.

  Theorem no_panic s : Inv s -> panicked s = false.
  Proof. intros [H _]; exact H. Qed.

  (** Every consumer has received a prefix of what the source produced, and
      every consumer that has not closed has received all of it. *)
  Theorem same_sequence s c : Inv s -> In c (cs s) ->
    (exists k, k <= srcpos s /\ got c = items k) /\
    (st c <> CDone -> got c = items (srcpos s)).
  Proof.
    intros [_ HI] Hin. destruct (created s).
    - destruct HI as (_ & _ & _ & _ & Hgot & Hpre & _). split; [apply Hpre; exact Hin|apply Hgot; exact Hin].
    - destruct HI as (_ & _ & _ & _ & _ & _ & Hsp & _ & Hgot). rewrite Hsp, (Hgot c Hin).
      split; [exists 0; split; [lia|reflexivity]|reflexivity].
  Qed.

  Theorem closed_once_after_all s : Inv s ->
    closed s <= 1 /\ (closed s = 1 <-> all_done s = true).
  Proof.
    intros [_ HI]. unfold all_done. rewrite all_done_counts. destruct (created s).
    - destruct HI as (H1 & H2 & _ & _ & _ & _ & [[H3 H4]|(H3 & H4 & H5)]).
      + (* a consumer is ready: the source is open *)
        rewrite H4. split; [apply Nat.le_0_l|]. split; [discriminate|].
        intros (_ & _ & E & _). rewrite E in H3. inversion H3.
      + rewrite H5. split; [apply Nat.le_refl|]. split; [intros _; repeat split; assumption|reflexivity].
    - destruct HI as (H1 & H2 & _ & _ & _ & _ & _ & H3 & _).
      rewrite H3. split; [apply Nat.le_0_l|]. split; [discriminate|].
      intros (E & _). rewrite H1, E in H2. inversion H2.
  Qed.

  Theorem no_stuck s : Inv s -> all_done s = false -> exists i s', step s i = Some s'.
  Proof.
    intros [Hp HI] Hnd.
    assert (Hex : exists i c, nth_error (cs s) i = Some c /\ (st c = CNew \/ st c = CReady)).
    { destruct (created s).
      - destruct HI as (H1 & H2 & _ & _ & _ & _ & [[H3 _]|(H3 & H4 & _)]).
        + destruct (count_pos_exists _ _ H3) as (i & c & Hn & Hc). exists i, c. split; [exact Hn|].
          right. apply is_st_iff; exact Hc.
        + exfalso. unfold all_done in Hnd. rewrite (proj2 (all_done_counts (cs s))) in Hnd; [discriminate|tauto].
      - destruct HI as (H1 & H2 & _). rewrite H1 in H2.
        destruct (count_pos_exists _ _ H2) as (i & c & Hn & Hc). exists i, c. split; [exact Hn|].
        left. apply is_st_iff; exact Hc. }
    destruct Hex as (i & c & Hn & Hc). exists i. unfold Mux.step. rewrite Hp, Hn.
    destruct Hc as [-> | ->]; eexists; reflexivity.
  Qed.

  Definition rankl (l : list cons) : nat := fold_right (fun c a => rank1 c + a) 0 l.

  Lemma rankl_upd l : forall i c c', nth_error l i = Some c ->
    rankl (upd i c' l) + rank1 c = rankl l + rank1 c'.
  Proof.
    induction l as [|h t IH]; intros [|i] c c' H; cbn in H; try discriminate.
    - inversion H; subst. cbn. lia.
    - cbn [upd rankl fold_right]. specialize (IH i c c' H). unfold rankl in IH. lia.
  Qed.

  Lemma rankl_wake_read it l : rankl (wake_read it l) = rankl l.
  Proof.
    induction l as [|h t IH]; [reflexivity|]. cbn [wake_read map rankl fold_right].
    fold (wake_read it t). unfold rankl in IH. rewrite IH. f_equal.
    unfold is_st, rank1. destruct (st h) eqn:E; cbn; rewrite ?E; reflexivity.
  Qed.

  Lemma rankl_wake_reg l : rankl (wake_reg l) = rankl l.
  Proof.
    induction l as [|h t IH]; [reflexivity|]. cbn [wake_reg map rankl fold_right].
    fold (wake_reg t). unfold rankl in IH. rewrite IH. f_equal.
    unfold is_st, rank1. destruct (st h) eqn:E; cbn; rewrite ?E; reflexivity.
  Qed.

  Lemma woken_rank it l l' : woken it l l' -> rankl l' = rankl l.
  Proof. intros [-> | [-> | ->]]; [reflexivity|apply rankl_wake_reg|apply rankl_wake_read]. Qed.

  Lemma moves_rank it c c' : moves it c c' -> rank1 c' < rank1 c.
  Proof.
    unfold rank1. intros [s1 Hst [-> | ->]|Hst Hr|k Hst Hr|k Hst Hr]; cbn [st reads set_st]; rewrite Hst, ?Hr; lia.
  Qed.

  Theorem step_decreases s i s' : Inv s -> step s i = Some s' -> rank s' < rank s.
  Proof.
    intros HI Hs. pose proof (step_inv _ _ _ HI Hs) as [Hp _].
    destruct (step_cs _ _ _ Hs) as [[E _]|(c & c' & l & Hn & Hm & Hl & E)]; [congruence|].
    change (rankl (cs s') < rankl (cs s)). rewrite E, <- (woken_rank _ _ _ Hl).
    pose proof (rankl_upd l i c c' (woken_nth _ _ _ _ _ _ Hl Hm Hn)). pose proof (moves_rank _ _ _ Hm). lia.
  Qed.

  (** No schedule is longer than the initial rank: every consumer finishes
      after finitely many steps, whatever the scheduler does. *)
  Theorem bounded_runs sched : forall s s', Inv s -> run s sched = Some s' ->
    length sched + rank s' <= rank s.
  Proof.
    induction sched as [|i rest IH]; intros s s' HI H; cbn in H.
    - inversion H; subst. cbn. lia.
    - destruct (step s i) as [s1|] eqn:E; [|discriminate].
      pose proof (step_decreases _ _ _ HI E). pose proof (IH _ _ (step_inv _ _ _ HI E) H). cbn [length]. lia.
  Qed.

  Lemma rank_zero_done s : Inv s -> rank s = 0 -> all_done s = true.
  Proof.
    intros HI H0. destruct (all_done s) eqn:E; [reflexivity|].
    destruct (no_stuck s HI E) as (i & s' & Hs). pose proof (step_decreases _ _ _ HI Hs). lia.
  Qed.
End P.
