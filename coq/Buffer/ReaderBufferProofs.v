(** C09 — NewCASBufferFromReader: the scripted io.Reader satisfies the
    content specification; the outcome of every method in terms of the
    validator state it leaves behind. *)
From Coq Require Import List ZArith NArith Bool Lia.
From BBS Require Import Buffer.Source Buffer.Validate Buffer.Convert Buffer.StreamProofs
  Buffer.ValidateProofs Buffer.ValidateReaderProofs Buffer.ConvertProofs
  Buffer.C09FullValidate Buffer.C09FullCombinators Buffer.C09FullReader Run.R09.
Import ListNotations.
Open Scope N_scope.

Definition rcont (s : rsrc) : bytes * err := content (r_rest s).

Lemma dropN_nil_takeN n l : dropN n l = [] -> takeN n l = l.
Proof. intros E. pose proof (takeN_dropN n l) as T. rewrite E, app_nil_r in T. exact T. Qed.
Lemma dropN_app_exact n a b : lenN a = n -> dropN n (a ++ b) = b.
Proof. intros <-. rewrite dropN_app_ge, N.sub_diag by apply N.le_refl. apply dropN_0. Qed.

Lemma rsrc_spec : forall cap s c e s', rsrc_read cap s = ((c, e), s') ->
  match e with
  | ENone => rcont s = (c ++ fst (rcont s'), snd (rcont s'))
  | _ => rcont s = (c, e)
  end.
Proof.
  intros cap s c e s' Hr. unfold rsrc_read, rcont in *.
  destruct (r_rest s) as [|[bs|c0|] r] eqn:Er.
  - inv Hr. reflexivity.
  - destruct (is_nil (dropN cap bs)) eqn:En; cbn [negb] in Hr.
    + apply is_nil_true in En. pose proof (dropN_nil_takeN _ _ En) as Et. rewrite Et in Hr.
      assert (Hplain : rcont (mkRsrc (Chunk bs :: r) (r_attach s) (r_closed s)) =
                       (bs ++ fst (content r), snd (content r))).
      { unfold rcont. cbn. destruct (content r); reflexivity. }
      unfold rcont in Hplain. cbn [r_rest] in Hplain.
      destruct (r_attach s).
      * destruct r as [|[bs2|c2|] r2]; inv Hr; cbn [r_rest content]; try (rewrite app_nil_r; reflexivity).
        destruct (content r2); reflexivity.
      * inv Hr. cbn [r_rest]. cbn [content]. destruct (content r); reflexivity.
    + inv Hr. cbn [r_rest content]. destruct (content r) as [c1 e1]. cbn [fst snd].
      rewrite app_assoc, takeN_dropN. reflexivity.
  - inv Hr. reflexivity.
  - inv Hr. reflexivity.
Qed.

Lemma rsrc_no_unexp : forall cap s c e s', rsrc_read cap s = ((c, e), s') -> e <> EUnexp.
Proof.
  intros cap s c e s' Hr. unfold rsrc_read in Hr.
  destruct (r_rest s) as [|[bs|c0|] r]; try (inv Hr; congruence).
  destruct (negb (is_nil (dropN cap bs))); [inv Hr; congruence|].
  destruct (r_attach s); [|inv Hr; congruence].
  destruct r as [|[bs2|c2|] r2]; inv Hr; congruence.
Qed.

Lemma rsrc_cap : forall cap s c e s', rsrc_read cap s = ((c, e), s') -> lenN c <= cap.
Proof.
  intros cap s c e s' Hr. unfold rsrc_read in Hr.
  assert (Hnil : lenN [] <= cap) by (unfold lenN; cbn; lia).
  assert (Ht : forall bs, lenN (takeN cap bs) <= cap) by (intros bs; rewrite lenN_takeN; lia).
  destruct (r_rest s) as [|[bs|c0|] r]; try (inv Hr; assumption).
  destruct (negb (is_nil (dropN cap bs))); [inv Hr; apply Ht|].
  destruct (r_attach s); [|inv Hr; apply Ht].
  destruct r as [|[bs2|c2|] r2]; inv Hr; apply Ht.
Qed.

Section Consumers.
  Variable S : Type.
  Variable rd : N -> S -> (bytes * err) * S.

  Lemma rdrains_not_none s bs e s' : rdrains rd s bs e s' -> e <> ENone.
  Proof. induction 1; auto. Qed.

  Lemma rconsume_rdrains fuel : forall caps lc out s out' e s',
    rconsume rd fuel caps lc out s = ((out', e), s') -> e <> EFuel ->
    exists bs, out' = out ++ bs /\ rdrains rd s bs e s'.
  Proof.
    induction fuel as [|f IH]; intros caps lc out s out' e s' Hr Hne; cbn [rconsume] in Hr; [inv Hr; congruence|].
    destruct (rd (hd lc caps) s) as [[c e0] s1] eqn:Hrd.
    destruct e0; try (inv Hr; exists c; split; [reflexivity|]; eapply rdrains_end; [eassumption|congruence]).
    destruct (IH _ _ _ _ _ _ _ Hr Hne) as (bs & -> & Hd). exists (c ++ bs). rewrite app_assoc.
    split; [reflexivity|]. eapply rdrains_step; eassumption.
  Qed.

  Lemma rb_read_failed f max st : rb_err st <> ENone -> rb_read rd f max st = (([], rb_err st), st).
  Proof. intros Hf. unfold rb_read. destruct (rb_err st); [congruence|reflexivity..]. Qed.

  Lemma copy_rdrains fuel cap : forall written s w' e' s',
    copy_loop rd fuel cap written s = ((w', e'), s') -> e' <> EFuel ->
    exists bs e, w' = written ++ bs /\ rdrains rd s bs e s' /\
                 e' = match e with EEof => ENone | _ => e end.
  Proof.
    induction fuel as [|f IH]; intros written s w' e' s' Hr Hne; cbn [copy_loop] in Hr; [inv Hr; congruence|].
    destruct (rd cap s) as [[c e0] s1] eqn:Hrd.
    destruct e0; try (inv Hr; eexists c, _; split; [reflexivity|]; split; [eapply rdrains_end; [eassumption|congruence]|reflexivity]).
    destruct (IH _ _ _ _ _ Hr Hne) as (bs & e & -> & Hd & He). exists (c ++ bs), e. rewrite app_assoc.
    split; [reflexivity|]. split; [eapply rdrains_step; eassumption|exact He].
  Qed.
  Lemma copy_not_eof fuel cap : forall written s w' e' s',
    copy_loop rd fuel cap written s = ((w', e'), s') -> e' <> EEof.
  Proof.
    intros written s w' e' s' Hr ->.
    destruct (copy_rdrains _ _ _ _ _ _ _ Hr ltac:(congruence)) as (bs & e & _ & _ & He). destruct e; discriminate.
  Qed.
End Consumers.

Section ReaderBuffer.
  Variable H : bytes -> bytes.
  Variable cfg : vcfg.
  Variable fuel : nat.

  Lemma valid_reader_script evs attach k :
    valid_reader H cfg rcont (mkRsrc evs attach k) <-> valid_script H cfg evs.
  Proof. reflexivity. Qed.

  Lemma rv_complete evs attach out st' :
    rdrains (rv_read H cfg fuel) (rv_init cfg evs attach) out EEof st' ->
    valid_script H cfg evs /\ out = fst (content evs).
  Proof.
    intros Hd. unfold rv_read in Hd.
    destruct (vr_complete_implies_valid H cfg _ _ fuel rcont rsrc_spec rsrc_no_unexp _ _ _ Hd) as (Hc & Hl & Hh).
    unfold rcont in Hc. cbn in Hc. unfold valid_script. rewrite Hc. auto.
  Qed.
End ReaderBuffer.

Section ReaderBuffer2.
  Variable H : bytes -> bytes.
  Variable cfg : vcfg.
  Variable fuel : nat.

  Notation RI := (RInv2 H cfg rsrc rcont).
  Notation vrd := (rv_read H cfg fuel).

  Lemma RI_eof evs attach st out :
    RI (mkRsrc evs attach 0) st out -> v_err st = EEof -> valid_script H cfg evs /\ out = fst (content evs).
  Proof.
    intros Hi He. destruct (RInv2_eof _ _ _ _ _ _ _ Hi He) as (Hc & Hl & Hh).
    unfold rcont in Hc. cbn in Hc. unfold valid_script. rewrite Hc. auto.
  Qed.

  Definition rb_ok (s : rbst rvs) : Prop := rb_err s = EEof -> v_err (rb_u s) = EEof.

  Lemma rb_read_vr s0 max (s : rbst rvs) c e (s1 : rbst rvs) pre :
    RI s0 (rb_u s) pre -> rb_ok s -> rb_read vrd fuel max s = ((c, e), s1) ->
    RI s0 (rb_u s1) (pre ++ c) /\ rb_ok s1 /\ (e = EEof -> v_err (rb_u s1) = EEof) /\ (e <> ENone -> c = []).
  Proof.
    intros Hi Hj Hr. unfold rb_read in Hr. destruct (rb_err s) eqn:Ee;
      try (inv Hr; rewrite app_nil_r; rsplit; auto; congruence).
    destruct (read_full vrd fuel max (rb_u s)) as [[data e0] u'] eqn:Hrf. unfold read_full, rv_read in Hrf.
    destruct (read_full_vr2 H cfg _ _ fuel rcont rsrc_spec rsrc_no_unexp rsrc_cap s0 pre _ _ [] _ _ _ _
                ltac:(rewrite app_nil_r; exact Hi) ltac:(unfold lenN; cbn; lia) Hrf) as (Hi1 & _ & Heof).
    assert (Hj1 : (match e0 with EUnexp => EEof | _ => e0 end) = EEof -> v_err u' = EEof).
    { intros Hx. apply Heof. destruct e0; try discriminate; auto. }
    destruct (negb (is_nil data)) eqn:En; inv Hr; cbn [rb_u rb_err].
    - rsplit; auto; try congruence.
    - apply negb_false_iff, is_nil_true in En. subst data. rsplit; auto.
  Qed.

  Lemma rb_drain_vr s0 max : forall f out (s : rbst rvs) out' e (s' : rbst rvs) pre,
    RI s0 (rb_u s) pre -> rb_ok s -> drain (rb_read vrd fuel max) f out s = ((out', e), s') ->
    exists R, out' = out ++ R /\ RI s0 (rb_u s') (pre ++ R) /\ (e = EEof -> v_err (rb_u s') = EEof).
  Proof.
    induction f as [|f IH]; intros out s out' e s' pre Hi Hj Hd; cbn [drain] in Hd.
    - inv Hd. exists []. rewrite !app_nil_r. rsplit; auto. congruence.
    - destruct (rb_read vrd fuel max s) as [[c e0] s1] eqn:Hr.
      destruct (rb_read_vr _ _ _ _ _ _ _ Hi Hj Hr) as (Hi1 & Hj1 & He1 & Hc1).
      destruct e0; try (inv Hd; exists []; rewrite !app_nil_r; rewrite (Hc1 ltac:(congruence)), app_nil_r in Hi1;
                        rsplit; auto; congruence).
      destruct (IH _ _ _ _ _ _ Hi1 Hj1 Hd) as (R & -> & HiR & HeR). exists (c ++ R). rewrite !app_assoc. rsplit; auto.
  Qed.

  Lemma RI_init evs attach : RI (mkRsrc evs attach 0) (rv_init cfg evs attach) [].
  Proof. apply RInv2_init. Qed.

  Notation RI3 := (RInv3 H cfg rsrc rcont).

  (** the set of validator states no consumption method leaves *)
  Definition Pr (evs : list ev) (attach : bool) (st : rvs) : Prop :=
    exists out, RI3 (mkRsrc evs attach 0) st out.

  Lemma Pr_init evs attach : Pr evs attach (rv_init cfg evs attach).
  Proof. exists []. apply RInv3_init. Qed.
  Lemma Pr_close evs attach st : Pr evs attach st -> Pr evs attach (rv_close st).
  Proof. intros (out & Hi). exists out. exact Hi. Qed.
  Lemma Pr_read evs attach : ragree (Pr evs attach) vrd vrd.
  Proof.
    intros cap st (out & Hi). split; [reflexivity|].
    destruct (vrd cap st) as [[d e] st'] eqn:Hr. cbn [snd]. exists (out ++ d). unfold rv_read in Hr.
    exact (vr_step3 H cfg rsrc rsrc_read fuel rcont rsrc_spec rsrc_no_unexp rsrc_cap _ _ _ _ _ _ _ Hi Hr).
  Qed.
  Lemma Pr_cbs evs attach st : Pr evs attach st ->
    (In true (v_cbs st) -> valid_script H cfg evs) /\ (In false (v_cbs st) -> ~ valid_script H cfg evs).
  Proof. intros (out & [[[Hc _] _] _]). exact Hc. Qed.
  Lemma Pr_not_unexp evs attach st : Pr evs attach st -> v_err st <> EUnexp.
  Proof. intros (out & [[_ Hnu] _]). exact Hnu. Qed.

  (** ** the reader-backed chunk reader reports the validator's sticky error *)
  Definition rb_tracks (s : rbst rvs) : Prop :=
    rb_err s = ENone \/ rb_err s = EFuel \/ v_err (rb_u s) = rb_err s.

  Lemma rb_read_tracks evs attach max s c e s' :
    Pr evs attach (rb_u s) -> rb_tracks s -> rb_read vrd fuel max s = ((c, e), s') ->
    Pr evs attach (rb_u s') /\ rb_tracks s' /\ (e <> ENone -> e = rb_err s').
  Proof.
    intros Hp Ht Hr. unfold rb_read in Hr.
    destruct (rb_err s) eqn:Ee; try (inv Hr; rsplit; auto; intros _; symmetry; exact Ee).
    destruct (read_full vrd fuel max (rb_u s)) as [[data e0] u'] eqn:Hrf.
    pose proof (read_full_agree _ _ _ _ (Pr_read evs attach) fuel max (rb_u s) Hp) as [_ Hp'].
    rewrite Hrf in Hp'. cbn [snd] in Hp'.
    assert (Ht' : rb_tracks (mkRbst u' (match e0 with EUnexp => EEof | _ => e0 end))).
    { unfold rb_tracks. cbn [rb_err rb_u].
      destruct (err_eqb e0 ENone) eqn:E1; [destruct e0; try discriminate; left; reflexivity|].
      destruct (err_eqb e0 EFuel) eqn:E2; [destruct e0; try discriminate; right; left; reflexivity|].
      right. right.
      assert (Hn1 : e0 <> ENone) by (intros ->; discriminate).
      assert (Hn2 : e0 <> EFuel) by (intros ->; discriminate).
      unfold read_full, rv_read in Hrf.
      destruct (read_full_err H cfg rsrc rsrc_read fuel _ _ _ _ _ _ _ Hrf Hn1 Hn2) as [(-> & Hv)|Hv]; [exact Hv|].
      destruct e0; auto. exfalso. exact (Pr_not_unexp _ _ _ Hp' Hv). }
    destruct (negb (is_nil data)); inv Hr; cbn [rb_u]; rsplit; auto; congruence.
  Qed.

  Lemma rb_drain_tracks evs attach max :
    forall f out s out' e s',
    Pr evs attach (rb_u s) -> rb_tracks s -> drain (rb_read vrd fuel max) f out s = ((out', e), s') -> e <> EFuel ->
    Pr evs attach (rb_u s') /\ v_err (rb_u s') = e /\ e <> ENone.
  Proof.
    induction f as [|f IH]; intros out s out' e s' Hp Ht Hd Hnf; cbn [drain] in Hd; [inv Hd; congruence|].
    destruct (rb_read vrd fuel max s) as [[c e0] s1] eqn:Hr.
    destruct (rb_read_tracks _ _ max _ _ _ _ Hp Ht Hr) as (Hp1 & Ht1 & He1).
    destruct (err_none_dec e0) as [->|Hne].
    2: { rewrite (err_match_failed _ _ _ Hne) in Hd. inv Hd. rsplit; auto. specialize (He1 Hne).
         destruct Ht1 as [Ht1|[Ht1|Ht1]]; congruence. }
    eapply IH; eassumption.
  Qed.

  Theorem reader_bad_param evs attach m o :
    cas_reader H cfg fuel evs attach m = o -> bad_param (g_size cfg) m = true ->
    o_err o = ECode 3 /\ o_data o = [] /\ o_cbs o = [] /\ o_aux o = [].
  Proof.
    intros Ho Hbp. destruct m; cbn [bad_param] in Hbp; try discriminate; cbn [cas_reader] in Ho.
    - unfold to_byte_slice_r in Ho. rewrite Hbp in Ho. subst o. cbn. auto.
    - unfold discard_from_reader in Ho. rewrite Hbp in Ho. subst o. cbn. auto.
    - apply negb_true_iff in Hbp. rewrite Hbp in Ho. subst o. cbn. auto.
    - unfold to_byte_slice_r in Ho. rewrite Hbp in Ho. subst o. cbn. auto.
  Qed.

  Lemma to_byte_slice_r_outcome evs attach max r st :
    (max <? g_size cfg) = false ->
    to_byte_slice_r H cfg fuel max (rv_init cfg evs attach) = (r, st) -> snd r <> EFuel ->
    match snd r with
    | ENone => valid_script H cfg evs /\ fst r = fst (content evs)
    | _ => fst r = [] /\ exists st1, Pr evs attach st1 /\ v_err st1 = snd r /\ snd r <> EEof
    end.
  Proof.
    intros Hmax Ht Hn2. unfold to_byte_slice_r in Ht. rewrite Hmax in Ht.
    pose proof (Pr_read evs attach) as Hag. pose proof (Pr_init evs attach) as HP0.
    pose proof (RI_init evs attach) as HI0.
    destruct (0 <? g_size cfg) eqn:Hpos.
    - apply N.ltb_lt in Hpos.
      destruct (read_full vrd fuel (g_size cfg) (rv_init cfg evs attach)) as [[data e] st1] eqn:Hrf.
      pose proof (read_full_agree _ _ _ _ Hag fuel (g_size cfg) _ HP0) as [_ Hp1]. rewrite Hrf in Hp1. cbn [snd] in Hp1.
      unfold read_full, rv_read in Hrf.
      destruct (read_full_vr2 H cfg _ _ fuel rcont rsrc_spec rsrc_no_unexp rsrc_cap _ [] _ _ [] _ _ _ _
                  HI0 ltac:(unfold lenN; cbn; lia) Hrf) as (Hi1 & Hfull & Hshort). cbn [app] in Hi1.
      (* a short read that saw io.EOF would have seen all [size] bytes *)
      assert (Hnoshort : e = EEof \/ e = EUnexp -> False).
      { intros Hx. destruct (Hshort Hx) as (Hve & Hlt).
        destruct (RInv2_eof _ _ _ _ _ _ _ Hi1 Hve) as (_ & Hl & _). lia. }
      inv Ht. destruct e; cbn [fst snd] in *; try congruence; try (exfalso; apply Hnoshort; auto; fail).
      + specialize (Hfull eq_refl).
        destruct (RInv_full _ _ _ _ _ _ _ (proj1 Hi1) ltac:(lia) Hpos) as (Hc & Hl & Hh).
        unfold rcont in Hc. cbn in Hc. unfold valid_script. rewrite Hc. auto.
      + split; [reflexivity|]. exists st1. rsplit; [exact Hp1| |congruence].
        destruct (read_full_err H cfg rsrc rsrc_read fuel _ _ _ _ _ _ _ Hrf ltac:(congruence) ltac:(congruence))
          as [(Hu & _)|Hv]; [congruence|exact Hv].
    - apply N.ltb_ge in Hpos.
      destruct (vrd 0 (rv_init cfg evs attach)) as [[d e] st1] eqn:Hv.
      pose proof (Hag 0 _ HP0) as [_ Hp1]. rewrite Hv in Hp1. cbn [snd] in Hp1.
      unfold rv_read in Hv.
      destruct (vr_read_step H cfg _ _ fuel rcont rsrc_spec rsrc_no_unexp _ _ _ _ _ _ _ (proj1 HI0) Hv)
        as ([_ Hi] & Herr & Hn & _). cbn [app] in Hi. rewrite Herr in Hi.
      injection Ht as <- <-. cbn [fst snd] in *.
      destruct e; try congruence.
      + specialize (Hn eq_refl). destruct Hi as (_ & _ & _ & Hl & _). lia.
      + destruct Hi as (Hc & Hl & Hh). unfold rcont in Hc. cbn in Hc. unfold valid_script. rewrite Hc. cbn.
        assert (d = []) by (apply lenN_zero; lia). subst d. auto.
      + split; [reflexivity|]. exists st1. rsplit; [exact Hp1|exact Herr|congruence].
      + split; [reflexivity|]. exists st1. rsplit; [exact Hp1|exact Herr|congruence].
  Qed.

  Theorem reader_outcome evs attach m o :
    m <> MDiscard -> cas_reader H cfg fuel evs attach m = o -> o_err o <> EFuel ->
    bad_param (g_size cfg) m = false ->
    if completed m (o_err o)
    then valid_script H cfg evs /\ o_data o = expected_slice m (fst (content evs))
    else exists st out, RI3 (mkRsrc evs attach 0) st out /\
           v_err st = o_err o /\ v_err st <> ENone /\ v_err st <> EEof /\
           (o_data o = [] \/ o_data o = partial_slice m out).
  Proof.
    intros Hm Ho Hnf Hbp.
    set (s0 := mkRsrc evs attach 0) in *.
    pose proof (Pr_read evs attach) as Hag. pose proof (Pr_init evs attach) as HP0.
    pose proof (RI_init evs attach) as HI0.
    assert (Hfin : forall st out, Pr evs attach st -> RInv H cfg rsrc rcont s0 st out -> RI3 s0 st out).
    { intros st out (out' & [[_ Hnu] Hor]) Hi. exact (conj (conj Hi Hnu) Hor). }
    (* nothing handed out: any account of the validator's reads will do *)
    assert (Hnodata : forall st e, Pr evs attach st -> v_err st = e -> e <> ENone -> e <> EEof ->
              exists st out, RI3 s0 st out /\ v_err st = e /\ v_err st <> ENone /\ v_err st <> EEof /\
                (@nil N = [] \/ [] = partial_slice m out)).
    { intros st e (out & Hi) He Hn1 Hn2. exists st, out. rewrite He. rsplit; auto. }
    destruct m; try congruence; cbn [cas_reader] in Ho; cbn [bad_param] in Hbp.
    - (* ToByteSlice *)
      destruct (to_byte_slice_r H cfg fuel max (rv_init cfg evs attach)) as [[out e] st] eqn:Ht. subst o.
      cbn [o_err o_data rv_out] in *.
      pose proof (to_byte_slice_r_outcome _ _ _ _ _ Hbp Ht Hnf) as Hs. cbn [fst snd] in Hs.
      destruct e; cbn [completed is_none expected_slice]; try exact Hs;
        destruct Hs as (-> & st1 & Hp1 & Hv1 & Hne); try congruence; apply (Hnodata st1 _ Hp1 Hv1); congruence.
    - (* IntoWriter *)
      destruct (copy vrd fuel (rv_init cfg evs attach)) as [[out e] st] eqn:Hcp. subst o. cbn [o_err o_data rv_out] in *.
      pose proof (copy_agree _ _ _ _ Hag fuel _ HP0) as [_ Hp1]. rewrite Hcp in Hp1. cbn [snd] in Hp1.
      unfold copy, rv_read in Hcp.
      pose proof (copy_not_eof _ _ _ _ _ _ _ _ _ Hcp) as Hn2.
      destruct (copy_vr H cfg _ _ fuel rcont rsrc_spec rsrc_no_unexp rsrc_cap _ _ _ _ _ _ _ _ _ HI0 Hcp) as (R & -> & Hi & Hv0).
      cbn [app] in *.
      destruct (err_none_dec e) as [->|Hn1].
      + destruct (RI_eof _ _ _ _ Hi (Hv0 eq_refl)) as (Hval & ->). split; [exact Hval|reflexivity].
      + pose proof (copy_err H cfg rsrc rsrc_read fuel _ _ _ _ _ _ _ Hcp Hn1 Hnf) as Hv.
        replace (completed MIntoWriter e) with false by (destruct e; congruence || reflexivity).
        exists st, R. rewrite Hv. rsplit; [exact (Hfin _ _ Hp1 (proj1 Hi))|reflexivity|exact Hn1|exact Hn2|].
        right. reflexivity.
    - (* ReadAt *)
      apply Z.ltb_ge in Hbp. unfold discard_from_reader in Ho.
      replace (off <? 0)%Z with false in Ho by (symmetry; apply Z.ltb_ge; exact Hbp).
      destruct (copy_n_loop vrd fuel (Z.to_N off) (rv_init cfg evs attach)) as [e0 st] eqn:Hcn.
      pose proof (copy_n_loop_agree _ _ _ _ Hag fuel (Z.to_N off) _ HP0) as [_ Hp1]. rewrite Hcn in Hp1. cbn [snd] in Hp1.
      unfold rv_read in Hcn.
      destruct (copy_n_vr H cfg _ _ fuel rcont rsrc_spec rsrc_no_unexp rsrc_cap _ _ _ _ _ _ _ HI0 Hcn)
        as (D & HiD & Hok & Heof). cbn [app] in HiD.
      destruct e0; try (subst o; cbn [o_err o_data rv_out completed is_none err_eqb orb] in *;
                        apply (Hnodata st _ Hp1); try congruence;
                        apply (copy_n_err H cfg rsrc rsrc_read fuel _ _ _ _ _ Hcn); congruence).
      + specialize (Hok eq_refl).
        destruct (read_full vrd fuel plen st) as [[got e] st1] eqn:Hrf.
        pose proof (read_full_agree _ _ _ _ Hag fuel plen _ Hp1) as [_ Hp2]. rewrite Hrf in Hp2. cbn [snd] in Hp2.
        unfold read_full, rv_read in Hrf.
        destruct (read_full_vr2 H cfg _ _ fuel rcont rsrc_spec rsrc_no_unexp rsrc_cap _ D _ _ [] _ _ _ _
                    ltac:(rewrite app_nil_r; exact HiD) ltac:(unfold lenN; cbn; lia) Hrf) as (Hi1 & Hfull & Hshort).
        (* the content ended inside [p] *)
        assert (Hend : v_err st1 = EEof -> lenN got < plen ->
                  valid_script H cfg evs /\ got = takeN plen (dropN (Z.to_N off) (fst (content evs)))).
        { intros Hv Hlt. destruct (RI_eof _ _ _ _ Hi1 Hv) as (Hval & Hcont). split; [exact Hval|].
          rewrite <- Hcont, dropN_app_exact by exact Hok. symmetry. apply takeN_all. lia. }
        destruct e.
        * specialize (Hfull eq_refl).
          destruct (copy vrd fuel st1) as [[w e2] st2] eqn:Hcp.
          pose proof (copy_agree _ _ _ _ Hag fuel _ Hp2) as [_ Hp3]. rewrite Hcp in Hp3. cbn [snd] in Hp3.
          unfold copy, rv_read in Hcp.
          destruct (copy_vr H cfg _ _ fuel rcont rsrc_spec rsrc_no_unexp rsrc_cap _ _ _ _ _ _ _ _ _ Hi1 Hcp)
            as (R & _ & Hi2 & Hv2).
          pose proof (copy_not_eof _ _ _ _ _ _ _ _ _ Hcp) as Hneof.
          destruct e2; try congruence; subst o; cbn [o_err o_data rv_out completed is_none err_eqb orb expected_slice] in *;
            try (apply (Hnodata st2 _ Hp3); try congruence;
                 apply (copy_err H cfg rsrc rsrc_read fuel _ _ _ _ _ _ _ Hcp); congruence).
          destruct (RI_eof _ _ _ _ Hi2 (Hv2 eq_refl)) as (Hval & Hcont). split; [exact Hval|].
          rewrite <- Hcont, <- app_assoc, dropN_app_exact by exact Hok. rewrite takeN_app.
          replace (plen - lenN got) with 0 by lia. rewrite takeN_all by lia. now rewrite takeN_0, app_nil_r.
        * subst o. destruct (Hshort (or_introl eq_refl)) as (Hv & Hlt). exact (Hend Hv Hlt).
        * subst o. destruct (Hshort (or_intror eq_refl)) as (Hv & Hlt). exact (Hend Hv Hlt).
        * subst o. cbn [o_err o_data rv_out completed is_none err_eqb orb] in *. apply (Hnodata st1 _ Hp2); try congruence.
          destruct (read_full_err H cfg rsrc rsrc_read fuel _ _ _ _ _ _ _ Hrf ltac:(congruence) ltac:(congruence))
            as [(Hu & _)|Hv]; [congruence|exact Hv].
        * subst o. cbn in Hnf. congruence.
      + (* the content ended before the offset *)
        subst o. destruct (Heof eq_refl) as (Hlt & Hv). cbn [o_err o_data rv_out completed is_none err_eqb orb expected_slice].
        destruct (RI_eof _ _ _ _ HiD Hv) as (Hval & Hcont). split; [exact Hval|].
        rewrite <- Hcont, dropN_all by lia. destruct plen; reflexivity.
    - (* ToChunkReader *)
      apply negb_false_iff in Hbp. rewrite Hbp in Ho.
      unfold valid_offset in Hbp. apply andb_true_iff in Hbp. destruct Hbp as [Hv0 Hv1].
      apply Z.leb_le in Hv0. apply N.leb_le in Hv1.
      unfold discard_from_reader in Ho.
      replace (off <? 0)%Z with false in Ho by (symmetry; apply Z.ltb_ge; exact Hv0).
      destruct (copy_n_loop vrd fuel (Z.to_N off) (rv_init cfg evs attach)) as [e0 st] eqn:Hcn.
      pose proof (copy_n_loop_agree _ _ _ _ Hag fuel (Z.to_N off) _ HP0) as [_ Hp1]. rewrite Hcn in Hp1. cbn [snd] in Hp1.
      unfold rv_read in Hcn.
      destruct (copy_n_vr H cfg _ _ fuel rcont rsrc_spec rsrc_no_unexp rsrc_cap _ _ _ _ _ _ _ HI0 Hcn)
        as (D & HiD & Hok & Heof). cbn [app] in HiD.
      destruct e0; try (subst o; cbn [o_err o_data rv_out completed err_eqb] in *;
                        apply (Hnodata st _ Hp1); try congruence;
                        apply (copy_n_err H cfg rsrc rsrc_read fuel _ _ _ _ _ Hcn); congruence).
      + specialize (Hok eq_refl).
        destruct (drain (rb_read vrd fuel max) fuel [] (mkRbst st ENone)) as [[out e] s] eqn:Hdr.
        destruct (extra_reads (rb_read vrd fuel max) extra s) as [ex s2]. subst o. cbn [o_err o_data rv_out] in *.
        destruct (rb_drain_tracks evs attach max fuel [] (mkRbst st ENone) _ _ _ Hp1
                    ltac:(left; reflexivity) Hdr Hnf) as (Hps & Hvs & Hne).
        destruct (rb_drain_vr _ max fuel [] (mkRbst st ENone) _ _ _ D HiD ltac:(unfold rb_ok; cbn; congruence) Hdr)
          as (R & -> & HiR & HvR). cbn [app] in *.
        cbn [completed expected_slice partial_slice]. destruct (err_eqb e EEof) eqn:Ee.
        * destruct (RI_eof _ _ _ _ HiR (HvR ltac:(destruct e; try discriminate; reflexivity))) as (Hval & Hcont).
          split; [exact Hval|]. rewrite <- Hcont. symmetry. exact (dropN_app_exact _ _ _ Hok).
        * exists (rb_u s), (D ++ R). rewrite Hvs.
          rsplit; [exact (Hfin _ _ Hps (proj1 HiR))|reflexivity|exact Hne|intros ->; discriminate|].
          right. symmetry. exact (dropN_app_exact _ _ _ Hok).
      + (* io.EOF before the offset: the content is shorter than [off] <= size, so it is not valid *)
        exfalso. destruct (Heof eq_refl) as (Hlt & Hv).
        destruct (RInv2_eof _ _ _ _ _ _ _ HiD Hv) as (_ & Hl & _). lia.
    - (* ToReader *)
      destruct (rconsume vrd fuel caps (last_cap caps) [] (rv_init cfg evs attach)) as [[out e] st] eqn:Hrc.
      destruct (rextra vrd extra (last_cap caps) st) as [ex st2]. subst o. cbn [o_err o_data rv_out] in *.
      pose proof (rconsume_agree _ _ _ _ Hag fuel caps (last_cap caps) [] _ HP0) as [_ Hp1]. rewrite Hrc in Hp1. cbn [snd] in Hp1.
      destruct (rconsume_rdrains _ _ _ _ _ _ _ _ _ _ Hrc Hnf) as (bs & -> & Hd). cbn [app].
      pose proof (rdrains_not_none _ _ _ _ _ _ Hd) as Hne.
      cbn [completed expected_slice partial_slice]. destruct (err_eqb e EEof) eqn:Ee.
      + assert (e = EEof) as -> by (destruct e; try discriminate; reflexivity).
        exact (rv_complete H cfg fuel _ _ _ _ Hd).
      + unfold rv_read in Hd.
        destruct (vr_rdrains H cfg rsrc rsrc_read fuel rcont rsrc_spec rsrc_no_unexp _ _ _ _ _ _ (RInv_init H cfg rsrc rcont s0) Hd)
          as (Hi & Hv). cbn [app] in Hi.
        exists st, bs. rewrite Hv.
        rsplit; [exact (Hfin _ _ Hp1 Hi)|reflexivity|exact Hne|intros ->; discriminate|right; reflexivity].
    - (* CloneCopy *)
      destruct (to_byte_slice_r H cfg fuel max (rv_init cfg evs attach)) as [[out e] st] eqn:Ht. subst o.
      unfold clone_copy_of in *. cbn [fst snd] in *.
      assert (Hn2 : e <> EFuel) by (intros ->; apply Hnf; reflexivity).
      pose proof (to_byte_slice_r_outcome _ _ _ _ _ Hbp Ht Hn2) as Hs. cbn [fst snd] in Hs.
      destruct e; cbn [o_err o_data completed is_none expected_slice]; try exact Hs;
        destruct Hs as (-> & st1 & Hp1 & Hv1 & Hne); try congruence; apply (Hnodata st1 _ Hp1 Hv1); congruence.
  Qed.

  Theorem reader_complete_implies_valid evs attach m o :
    m <> MDiscard ->
    cas_reader H cfg fuel evs attach m = o -> completed m (o_err o) = true ->
    valid_script H cfg evs /\ o_data o = expected_slice m (fst (content evs)).
  Proof.
    intros Hm Ho Hc.
    assert (Hnf : o_err o <> EFuel) by (intros E; rewrite E in Hc; destruct m; discriminate).
    destruct (bad_param (g_size cfg) m) eqn:Hbp.
    { destruct (reader_bad_param _ _ _ _ Ho Hbp) as (E & _). rewrite E, completed_not_code in Hc. discriminate. }
    pose proof (reader_outcome _ _ _ _ Hm Ho Hnf Hbp) as Hout. rewrite Hc in Hout. exact Hout.
  Qed.
End ReaderBuffer2.
