(** C09 — after the end of the stream nothing more is handed out:
    for both stream constructors, ToChunkReader and ToReader, every script
    (valid or not), once the stream has ended with an error or io.EOF (and the
    model did not run out of fuel) every further read yields no data; for the
    chunk-reader interfaces it repeats the same error.  Also the "otherwise"
    half of NewCASBufferFromByteSlice (eager validation). *)
From Coq Require Import List ZArith NArith Bool Lia.
From BBS Require Import Buffer.Source Buffer.Validate Buffer.Convert Buffer.StreamProofs
  Buffer.ValidateProofs Buffer.ValidateReaderProofs Buffer.ConvertProofs Buffer.ReaderBufferProofs.
Import ListNotations.
Open Scope N_scope.

Section Sticky.
  Variable S : Type.
  Variable rd : S -> (bytes * err) * S.

  Definition sticky : Prop :=
    forall s c e s', rd s = ((c, e), s') -> e <> ENone -> e <> EFuel -> rd s' = (([], e), s').

  Lemma drain_last fuel : forall out s out' e s',
    drain rd fuel out s = ((out', e), s') -> e <> EFuel ->
    exists s1 c, rd s1 = ((c, e), s') /\ e <> ENone.
  Proof.
    induction fuel as [|f IH]; intros out s out' e s' Hd Hnf; cbn [drain] in Hd; [inv Hd; congruence|].
    destruct (rd s) as [[c e0] s1] eqn:Hr.
    destruct e0; try (inv Hd; exists s, c; split; [exact Hr|congruence]).
    eapply IH; eassumption.
  Qed.

  Lemma extra_reads_fixed e : forall k s,
    rd s = (([], e), s) -> extra_reads rd k s = (repeat ([], e) k, s).
  Proof.
    induction k as [|k IH]; intros s Hf; cbn [extra_reads repeat]; [reflexivity|].
    rewrite Hf, (IH s Hf). reflexivity.
  Qed.

  Lemma drain_then_extra fuel out s out' e s' k :
    sticky -> drain rd fuel out s = ((out', e), s') -> e <> EFuel ->
    extra_reads rd k s' = (repeat ([], e) k, s').
  Proof.
    intros Hst Hd Hnf. destruct (drain_last _ _ _ _ _ _ Hd Hnf) as (s1 & c & Hr & Hne).
    apply extra_reads_fixed. exact (Hst _ _ _ _ Hr Hne Hnf).
  Qed.

  Lemma offset_read_sticky : sticky -> forall o c e o',
    offset_read rd o = ((c, e), o') -> e <> ENone -> e <> EFuel -> offset_read rd o' = (([], e), o').
  Proof.
    intros Hst o c e o' Hr Hne Hnf. destruct (err_none_dec (o_fixed o)) as [Ef|Ef].
    - unfold offset_read in Hr. rewrite Ef in Hr.
      destruct (is_nil (o_prefix o)); [|inv Hr; congruence].
      destruct (rd (o_u o)) as [[c0 e0] u'] eqn:Hrd. inv Hr.
      unfold offset_read. cbn [o_fixed o_prefix is_nil o_u]. rewrite (Hst _ _ _ _ Hrd Hne Hnf). reflexivity.
    - rewrite (offset_read_fixed _ _ _ Ef) in Hr. inv Hr. exact (offset_read_fixed _ _ _ Ef).
  Qed.

  Lemma norm_read_sticky max : sticky -> forall g n c e n', g <> 0%nat ->
    norm_read rd g max n = ((c, e), n') -> e <> ENone -> e <> EFuel ->
    norm_read rd g max n' = (([], e), n').
  Proof.
    intros Hst g n c e n' Hg Hr Hne Hnf. destruct g as [|f]; [congruence|].
    assert (Hgen : forall g n, norm_read rd g max n = ((c, e), n') ->
              n_last n' = [] /\ rd (n_u n') = (([], e), n_u n')).
    { induction g as [|g IH]; intros n0 Hr0; cbn [norm_read] in Hr0.
      - destruct (negb (is_nil (n_last n0))); [destruct (max <? lenN (n_last n0)); inv Hr0; congruence|inv Hr0; congruence].
      - destruct (negb (is_nil (n_last n0))); [destruct (max <? lenN (n_last n0)); inv Hr0; congruence|].
        destruct (rd (n_u n0)) as [[c0 e0] u'] eqn:Hrd.
        destruct e0; try (inv Hr0; cbn [n_last n_u]; split; [reflexivity|]; apply (Hst _ _ _ _ Hrd); congruence).
        exact (IH _ Hr0). }
    destruct (Hgen _ _ Hr) as (Hl & Hf). cbn [norm_read]. rewrite Hl. cbn [is_nil negb]. rewrite Hf.
    destruct e; try congruence; destruct n' as [u l]; cbn in *; subst l; reflexivity.
  Qed.
End Sticky.

Lemma datas_of_repeat_nil e k : datas_of (repeat (([] : bytes), e) k) = [].
Proof. induction k as [|k IH]; cbn; [reflexivity|exact IH]. Qed.
Lemma errs_of_repeat d e k : errs_of (repeat ((d : bytes), e) k) = repeat e k.
Proof. induction k as [|k IH]; cbn; [reflexivity|]. unfold errs_of in IH. now rewrite IH. Qed.

Section ExtrasTheorems.
  Variable H : bytes -> bytes.
  Variable cfg : vcfg.
  Variable fuel : nat.
  Notation rdv := (cv_read H cfg fuel).
  Notation vrd := (rv_read H cfg fuel).

  Lemma cv_sticky : sticky cvs rdv.
  Proof. intros s c e s' Hr Hne _. unfold cv_read in *. exact (proj2 (vcr_sticky _ _ _ _ _ _ _ _ _ Hr Hne)). Qed.

  Theorem chunk_to_chunk_reader_extras evs off max k :
    let o := cas_chunk_reader H cfg fuel evs (MToChunkReader off max k) in
    o_err o <> EFuel -> o_extra o = repeat (o_err o) k /\ o_aux o = [].
  Proof.
    cbn [cas_chunk_reader]. destruct (valid_offset (g_size cfg) off); [|cbn; auto].
    set (o0 := offset_init rdv cv_close fuel off (cv_init cfg evs)).
    destruct (drain (norm_read (offset_read rdv) fuel max) fuel [] (mkNst o0 [])) as [[out e] n] eqn:Hd.
    intros Hnf.
    assert (Hex : extra_reads (norm_read (offset_read rdv) fuel max) k n = (repeat ([], e) k, n)).
    { assert (Hnf' : e <> EFuel).
      { destruct (extra_reads _ k n) as [ex n2]. exact Hnf. }
      assert (Hf0 : fuel <> 0%nat).
      { intros E0. revert Hd. generalize (norm_read (offset_read rdv) fuel max). rewrite E0.
        intros r Hd. cbn [drain] in Hd. inv Hd. congruence. }
      eapply drain_then_extra; [|exact Hd|exact Hnf'].
      intros s c e1 s' Hr Hne Hnf1. eapply norm_read_sticky; try eassumption.
      intros o c2 e2 o' Hr2 Hne2 Hnf2. eapply offset_read_sticky; try eassumption.
      exact cv_sticky. }
    rewrite Hex. cbn [o_extra o_aux o_err cv_out]. rewrite datas_of_repeat_nil, errs_of_repeat. auto.
  Qed.

  Lemma rb_read_sticky max : sticky (rbst rvs) (rb_read vrd fuel max).
  Proof.
    intros s c e s' Hr Hne Hnf. destruct (err_none_dec (rb_err s)) as [Ee|Ee].
    - unfold rb_read in Hr. rewrite Ee in Hr.
      destruct (read_full vrd fuel max (rb_u s)) as [[data e0] u'].
      destruct (negb (is_nil data)); inv Hr; [congruence|].
      unfold rb_read. cbn [rb_err]. destruct e0; try congruence; reflexivity.
    - rewrite (rb_read_failed _ _ _ _ _ Ee) in Hr. inv Hr. exact (rb_read_failed _ _ _ _ _ Ee).
  Qed.

  Theorem reader_to_chunk_reader_extras evs attach off max k :
    let o := cas_reader H cfg fuel evs attach (MToChunkReader off max k) in
    o_err o <> EFuel -> o_extra o = repeat (o_err o) k /\ o_aux o = [].
  Proof.
    cbn [cas_reader]. destruct (valid_offset (g_size cfg) off); [|cbn; auto].
    destruct (discard_from_reader vrd fuel off (rv_init cfg evs attach)) as [e0 st].
    destruct e0; try (cbn; auto).
    destruct (drain (rb_read vrd fuel max) fuel [] (mkRbst st ENone)) as [[out e] s] eqn:Hd.
    intros Hnf.
    assert (Hex : extra_reads (rb_read vrd fuel max) k s = (repeat ([], e) k, s)).
    { assert (Hnf' : e <> EFuel).
      { destruct (extra_reads _ k s) as [ex s2]. exact Hnf. }
      eapply drain_then_extra; [exact (rb_read_sticky max)|exact Hd|exact Hnf']. }
    rewrite Hex. cbn [o_extra o_aux o_err rv_out]. rewrite datas_of_repeat_nil, errs_of_repeat. auto.
  Qed.

  Lemma rconsume_last (S : Type) (rd : N -> S -> (bytes * err) * S) f : forall caps lc out s out' e s',
    rconsume rd f caps lc out s = ((out', e), s') -> e <> EFuel ->
    exists cap s1 c, rd cap s1 = ((c, e), s') /\ e <> ENone.
  Proof.
    induction f as [|f IH]; intros caps lc out s out' e s' Hr Hnf; cbn [rconsume] in Hr; [inv Hr; congruence|].
    destruct (rd (hd lc caps) s) as [[c e0] s1] eqn:Hrd.
    destruct e0; try (inv Hr; exists (hd lc caps), s, c; split; [exact Hrd|congruence]).
    eapply IH; eassumption.
  Qed.

  Lemma rextra_nodata (S : Type) (rd : N -> S -> (bytes * err) * S) cap : forall k s,
    (exists e, rd cap s = (([], e), s)) -> datas_of (fst (rextra rd k cap s)) = [] /\ snd (rextra rd k cap s) = s.
  Proof.
    induction k as [|k IH]; intros s Hf; cbn [rextra]; [auto|].
    destruct Hf as (e & Hf). rewrite Hf. destruct (IH s (ex_intro _ e Hf)) as (A & B).
    destruct (rextra rd k cap s) as [l s2]. cbn [fst snd] in *. subst s2. split; [|reflexivity].
    unfold datas_of in *. cbn [map concat fst app]. exact A.
  Qed.

  Theorem reader_to_reader_extras evs attach caps k :
    let o := cas_reader H cfg fuel evs attach (MToReader caps k) in
    o_err o <> EFuel -> o_aux o = [].
  Proof.
    cbn [cas_reader].
    destruct (rconsume vrd fuel caps (last_cap caps) [] (rv_init cfg evs attach)) as [[out e] st] eqn:Hrc.
    intros Hnf.
    assert (Hnf' : e <> EFuel) by (destruct (rextra vrd k (last_cap caps) st) as [ex st2]; exact Hnf).
    destruct (rconsume_last _ _ _ _ _ _ _ _ _ _ Hrc Hnf') as (cap & s1 & c & Hr & Hne).
    unfold rv_read in Hr. pose proof (vr_sticky _ _ _ _ _ _ _ _ _ _ Hr Hne (last_cap caps)) as Hfix.
    destruct (rextra_nodata _ vrd (last_cap caps) k st (ex_intro _ e Hfix)) as (A & _).
    destruct (rextra vrd k (last_cap caps) st) as [ex st2]. exact A.
  Qed.

  Lemma cb_read_after_error cap st e :
    rdv (cb_u st) = (([], e), cb_u st) -> e <> ENone -> cb_last st = [] ->
    exists e', cb_read rdv fuel cap st = (([], e'), st).
  Proof.
    intros Hf Hne Hl. unfold cb_read. rewrite Hl. cbn [takeN dropN]. change (lenN []) with 0. rewrite N.sub_0_r.
    destruct st as [u l]. cbn [cb_u cb_last] in *. subst l.
    destruct fuel as [|f]; cbn [cb_loop]; destruct (cap =? 0); try (eexists; reflexivity).
    cbn [cb_u]. rewrite Hf. destruct e; try congruence; eexists; reflexivity.
  Qed.

  Lemma cb_loop_error_last (rd := rdv) : forall f left got st c e st',
    (0 < left -> cb_last st = []) -> cb_loop rd f left got st = ((c, e), st') -> e <> ENone -> e <> EFuel ->
    cb_last st' = [] /\ exists s1 c1, rd s1 = ((c1, e), cb_u st').
  Proof.
    induction f as [|f IH]; intros left got st c e st' Hl Hr Hne Hnf; cbn [cb_loop] in Hr;
      destruct (left =? 0) eqn:E0; try (inv Hr; congruence).
    apply N.eqb_neq in E0.
    destruct (rd (cb_u st)) as [[c0 e0] u'] eqn:Hrd.
    destruct e0; try (inv Hr; cbn [cb_last cb_u]; split; [apply Hl; lia|eauto]).
    eapply IH; [|exact Hr|exact Hne|exact Hnf]. cbn [cb_last]. intros Hpos.
    apply dropN_all. rewrite lenN_takeN in Hpos. lia.
  Qed.

  Theorem chunk_to_reader_extras evs caps k :
    let o := cas_chunk_reader H cfg fuel evs (MToReader caps k) in
    o_err o <> EFuel -> o_aux o = [].
  Proof.
    cbn [cas_chunk_reader].
    destruct (rconsume (cb_read rdv fuel) fuel caps (last_cap caps) [] (mkCbst (cv_init cfg evs) [])) as [[out e] s] eqn:Hrc.
    intros Hnf.
    assert (Hnf' : e <> EFuel) by (destruct (rextra (cb_read rdv fuel) k (last_cap caps) s) as [ex s2]; exact Hnf).
    destruct (rconsume_last _ _ _ _ _ _ _ _ _ _ Hrc Hnf') as (cap & s1 & c & Hr & Hne).
    unfold cb_read in Hr.
    assert (Hpre : 0 < cap - lenN (takeN cap (cb_last s1)) ->
                   cb_last (mkCbst (cb_u s1) (dropN cap (cb_last s1))) = []).
    { intros Hpos. cbn [cb_last]. apply dropN_all. rewrite lenN_takeN in Hpos. lia. }
    destruct (cb_loop_error_last _ _ _ _ _ _ _ Hpre Hr Hne Hnf') as (Hl & s2 & c2 & Hrd).
    pose proof (cv_sticky _ _ _ _ Hrd Hne Hnf') as Hfix.
    destruct (rextra_nodata _ (cb_read rdv fuel) (last_cap caps) k s (cb_read_after_error _ _ _ Hfix Hne Hl)) as (A & _).
    destruct (rextra (cb_read rdv fuel) k (last_cap caps) s) as [ex s3]. exact A.
  Qed.

  Theorem byte_slice_otherwise data m :
    m <> MDiscard -> ~ (lenN data = g_size cfg /\ g_hash cfg = H data) ->
    let o := cas_byte_slice H cfg fuel data m in
    o_err o = ECode (g_code cfg) /\ o_data o = [] /\ o_aux o = [] /\ o_cbs o = [false].
  Proof.
    intros Hm Hnv. unfold cas_byte_slice.
    destruct (g_size cfg =? lenN data) eqn:Es; cbn [negb]; [|destruct m; try congruence; cbn; auto].
    destruct (bytes_eqb (g_hash cfg) (H data)) eqn:Eh; cbn [negb]; [|destruct m; try congruence; cbn; auto].
    exfalso. apply Hnv. apply N.eqb_eq in Es. apply bytes_eqb_eq in Eh. auto.
  Qed.
End ExtrasTheorems.
