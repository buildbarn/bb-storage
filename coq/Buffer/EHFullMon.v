(** C16 — monitor clause 1 (Done reported exactly once to the OUTERMOST
    handler) never fires on the model's own observation, for every input with
    at least one handler (the harness's domain: stacks of 1-3 handlers).
    Clauses 8-10 are proved silent in Run/R16Proofs.v; clause 1 follows from
    clause 8.  Without a handler the observation has no Done count at all and
    clause 1 fires: [clause1_needs_a_handler]. *)
From Coq Require Import List ZArith NArith Bool Lia.
From BBS Require Import Common.Sx Run.R16 Run.R16Proofs.
Import ListNotations.
Open Scope Z_scope.

Lemma last_in {A} (l : list A) d : l <> [] -> In (last l d) l.
Proof.
  induction l as [|x l IH]; intros Hn; [congruence|]. destruct l as [|y l]; [left; reflexivity|].
  right. apply IH. discriminate.
Qed.

Theorem clause_1_silent_on_model : forall inp,
  q_anss (dec_case16 inp) <> [] -> last (obs_dones (run16 inp)) 0 = 1.
Proof.
  intros inp Hne. destruct (clauses_8_9_silent_on_model inp) as (H8 & _).
  unfold clause8 in H8. apply andb_true_iff in H8. destruct H8 as (Hall & Hlen).
  apply Nat.eqb_eq in Hlen.
  assert (Hd : obs_dones (run16 inp) <> []).
  { intros E. rewrite E in Hlen. revert Hlen Hne. destruct (q_anss (dec_case16 inp)); intros Hlen Hne; [congruence|discriminate Hlen]. }
  rewrite forallb_forall in Hall. specialize (Hall _ (last_in _ 0 Hd)). apply Z.eqb_eq in Hall. exact Hall.
Qed.

(** the clause as the monitor evaluates it *)
Corollary clause_1_not_reported : forall inp,
  q_anss (dec_case16 inp) <> [] ->
  (if last (obs_dones (run16 inp)) 0 =? 1 then [] else [1]) = ([] : list Z).
Proof. intros inp Hne. rewrite (clause_1_silent_on_model inp Hne). reflexivity. Qed.

Example clause1_needs_a_handler :
  let inp := L [A 1; L [A 3; L [A 9; A 9]; A 3]; L [A 2; L [A 1; A 2; A 3]]; L []; L [A 1];
                L [L [L [A 1; A 2; A 3]; L [A 9; A 9]]]] in
  q_anss (dec_case16 inp) = [] /\ mon16 inp (run16 inp) = [1].
Proof. vm_compute. auto. Qed.
