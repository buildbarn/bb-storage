(** C16 — every streaming run of a stack, however it ends, against the
    level-wise specification: the validated stream is a prefix of the
    specification's stream, every level's offers so far are a prefix of the
    specification's, and either the method rejected its offset (error code 3,
    no data) or the run ended in one of three ways — with the
    specification's own final error (all offers made), with a validation
    failure at the specification's io.EOF (all offers made), or with a
    validation failure because the specification's stream is longer than the
    digest's size. *)
From Coq Require Import List ZArith NArith Bool Lia.
From BBS Require Import Buffer.Source Buffer.Validate Buffer.Convert Buffer.ErrHandler
  Buffer.StreamProofs Buffer.ValidateProofs Buffer.ConvertProofs Buffer.ReaderBufferProofs
  Buffer.EHFullPrefix Buffer.EHFullExact Buffer.EHFullStackExact Buffer.EHFullStacking
  Buffer.EHFullCompleted Buffer.EHFullPartial Run.R09 Run.R16.
Import ListNotations.
Open Scope N_scope.

Lemma dropN_prefix k a r : exists r', dropN k (a ++ r) = dropN k a ++ r'.
Proof.
  destruct (N.le_gt_cases k (lenN a)) as [Hle|Hgt].
  - exists r. now apply dropN_app.
  - exists (dropN (k - lenN a) r). rewrite dropN_app_ge by lia. rewrite (dropN_all k a) by lia. reflexivity.
Qed.

Lemma zipo_lpre : forall (act qss offss : list (list err)),
  Forall2 lpre qss offss -> length qss = length act -> Forall2 lpre (zipo act qss) (zipo act offss).
Proof.
  induction act as [|a r IH]; intros qss offss Hf Hl; [constructor|].
  destruct Hf as [|q o qs os (x & ->) Hf]; [discriminate|]. cbn [zipo]. constructor.
  - exists x. now rewrite app_assoc.
  - apply IH; [exact Hf|cbn in Hl; lia].
Qed.
Lemma lpre_app a b c d : Forall2 lpre a b -> Forall2 lpre c d -> Forall2 lpre (a ++ c) (b ++ d).
Proof. induction 1; cbn; [auto|constructor; auto]. Qed.

Section WholeRuns.
  Variable H : bytes -> bytes.
  Variable cfg : vcfg.
  Variable fuel : nat.

  Definition method_err (m : meth) (e : err) : err :=
    match m with MIntoWriter => match e with EEof => ENone | _ => e end | _ => e end.

  (** how a run ended, against the specification [(st, term, offss)] and the
      final OnError arguments [logs] of all levels *)
  Definition ended_run (e : err) (st : bytes) (term : err) (logs offss : list (list err)) : Prop :=
    (e = term /\ logs = offss) \/
    (e = ECode (g_code cfg) /\ term = EEof /\ logs = offss) \/
    (e = ECode (g_code cfg) /\ g_size cfg < lenN st).

  Theorem run_stack_streaming_facts b0 anss m :
    streaming m -> anss <> [] -> bad_param (g_size cfg) m = false ->
    wf_case b0 anss ->
    y_err (run_stack H cfg fuel b0 anss m) <> EFuel ->
    no_fuel_offered (y_logs (run_stack H cfg fuel b0 anss m)) ->
    let o := run_stack H cfg fuel b0 anss m in
    let '(st, term, offss) := (let '(p0, t0) := piece_of b0 0 in stitch_stack p0 t0 anss) in
    Forall2 lpre (map oell (y_logs o)) offss /\
    ((y_err o = ECode 3 /\ y_data o = [] /\ term = EEof /\ map oell (y_logs o) = offss) \/
     (exists out e rest,
        e <> ENone /\ st = out ++ rest /\ y_data o = dropN (Z.to_N (m_off m)) out /\
        y_err o = method_err m e /\ (e <> EEof -> out = [] \/ lenN out < g_size cfg) /\
        ended_run e st term (map oell (y_logs o)) offss)).
  Proof.
    intros Hm Hne Hbp Hwf. unfold run_stack.
    destruct (stack_handlers b0 _ _) as [b w] eqn:Hs. intros Hef Hnf.
    destruct (stacked_spec _ _ _ _ Hs Hwf) as (Hb & Hw & Hspec). cbv zeta.
    destruct (w_act w) as [|a act] eqn:Ea.
    - (* a buffer in a known state *)
      cbn [y_err y_data y_logs] in *.
      assert (Hk : match b with BBytes _ | BError _ => True | _ => False end).
      { eapply stack_handlers_known; [exact Hs| |reflexivity|exact Ea]. destruct anss; [congruence|discriminate]. }
      assert (Hlogs : map oell (logs_of w) = map oel (w_dn w)) by (unfold logs_of; rewrite Ea, map_oell_logs, app_nil_r; reflexivity).
      destruct b as [evs|evs a0|d|x]; try contradiction; cbn [plain] in *.
      + pose proof (piece0_known (BBytes d)) as Hpk. unfold piece0 in Hpk. rewrite Hpk in Hspec.
        cbn [map stitch_stack zipo] in Hspec. rewrite app_nil_r in Hspec. rewrite Hspec, Hlogs.
        split; [apply lpre_refl|].
        destruct m; try contradiction; cbn [byte_slice_buffer m_off method_err o_data o_err] in *.
        * right. exists d, EEof, []. rewrite app_nil_r. change (Z.to_N 0) with 0. rewrite dropN_0.
          rsplit; auto; try congruence. left. auto.
        * destruct (valid_offset (lenN d) off) eqn:Hv.
          -- destruct (drain (bs_read max) fuel [] (dropN (Z.to_N off) d)) as [[out e] s] eqn:Hd.
             destruct (extra_reads (bs_read max) extra s) as [ex s2]. cbn [o_data o_err] in *.
             destruct (drain_drains _ _ _ _ _ _ _ _ Hd Hef) as (bs & -> & Hds). cbn [app].
             destruct (bs_read_drains _ _ _ _ _ Hds) as (-> & ->).
             right. exists d, EEof, []. rewrite app_nil_r. rsplit; auto; try congruence. left. auto.
          -- cbn [o_data o_err]. left. auto.
        * destruct (rconsume bb_read fuel caps (last_cap caps) [] d) as [[out e] s] eqn:Hr.
          destruct (rextra bb_read extra (last_cap caps) s) as [ex s2]. cbn [o_data o_err] in *.
          destruct (rconsume_rdrains _ _ _ _ _ _ _ _ _ _ Hr Hef) as (bs & -> & Hds). cbn [app].
          destruct (bb_rdrains _ _ _ _ Hds) as (-> & ->).
          right. exists d, EEof, []. rewrite app_nil_r, dropN_0. rsplit; auto; try congruence. left. auto.
      + pose proof (piece0_known (BError x)) as Hpk. unfold piece0 in Hpk. rewrite Hpk in Hspec.
        cbn [map stitch_stack zipo] in Hspec. rewrite app_nil_r in Hspec. rewrite Hspec, Hlogs.
        split; [apply lpre_refl|]. right. exists [], (ECode x), []. 
        destruct m; try contradiction; cbn [error_buffer o_data o_err m_off method_err]; rsplit; auto; try congruence;
          try (now destruct (Z.to_N off)); left; auto.
    - assert (Hnn : w_act w <> []) by (rewrite Ea; discriminate). rewrite <- Ea in *.
      destruct (ehs_streaming_facts H cfg fuel b w m Hm Hbp Hb Hw Hnn Hef Hnf) as (out & e & Hen & Hrf & Hdat & Herr & Hwh).
      unfold run_facts in Hrf. unfold spec_of in Hrf.
      destruct (let '(p, t) := piece_of b 0 in stitch_stack p t (map h_answers (w_act w))) as [[st term] offss_b] eqn:Hsb.
      destruct Hrf as (qss & rest & Hlog & Hq & Hst & Hend & _).
      rewrite Hspec.
      assert (Hlq : length qss = length (map oel (w_act w))).
      { pose proof (stitch_stack_length (map h_answers (w_act w)) (fst (piece_of b 0)) (snd (piece_of b 0))) as Hl.
        destruct (piece_of b 0) as [p t]. cbn [fst snd] in Hl. rewrite Hsb in Hl. cbn [snd] in Hl.
        rewrite (Forall2_len _ _ _ Hq), Hl, !map_length. reflexivity. }
      split.
      + rewrite Hlog. apply lpre_app; [apply lpre_refl|apply zipo_lpre; assumption].
      + right. exists out, e, rest. rsplit; auto.
        destruct Hend as [(-> & ->)|[(-> & -> & ->)|(-> & Hl)]].
        * left. rewrite Hlog. auto.
        * right. left. rewrite Hlog. auto.
        * right. right. auto.
  Qed.
End WholeRuns.
