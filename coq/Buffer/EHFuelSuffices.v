(** C16 (fuel) — [stack_fuel] suffices: for every buffer, every stack of
    handler scripts and every method whose loop parameters are positive
    ([good_param], C09FuelSuffices.v) the model of the stack ([run_stack]) with
    fuel at least [stack_fuel b0 anss] never ends in [EFuel] and never offers
    [EFuel] to a handler.  Monotone in the fuel. *)
From Coq Require Import List ZArith NArith Bool Lia.
From BBS Require Import Buffer.Source Buffer.Validate Buffer.Convert Buffer.ErrHandler
  Buffer.ValidateProofs Buffer.C09FuelLoops Buffer.C09FuelSuffices Buffer.ErrHandlerProofs
  Buffer.EHFuelLaws Run.R16.
Import ListNotations.
Open Scope nat_scope.

Definition clean_logs (ls : list (list hev)) : Prop := Forall (fun l => ~ In (HOnError EFuel) l) ls.

Lemma Wok_logs w : Wok w -> clean_logs (logs_of w).
Proof. unfold Wok, clean_logs, logs_of, clean. intros Hw. rewrite Forall_map. exact Hw. Qed.

Lemma weh_fuel : forall n b h r h', with_error_handler n b h = (r, h') -> clean h ->
  clean h' /\
  bcost (match r with inl x | inr x => x end) + anscost (h_answers h') <= bcost b + anscost (h_answers h).
Proof.
  induction n as [|n IH]; intros b h r h' Hw Hc; destruct b as [evs|evs at_|d|c]; cbn [with_error_handler] in Hw;
    try (inv Hw; cbn [h_answers done]; split; [first [assumption|apply clean_done; assumption]|lia]);
    destruct (on_error h (ECode c)) as [a h1] eqn:Ho;
    destruct (on_error_fuel _ _ _ _ Ho ltac:(congruence) Hc) as (Hc1 & Hcost);
    destruct a as [b1|c1];
    try (inv Hw; cbn [bcost done h_answers] in *; split; [apply clean_done; assumption|lia]).
  - (* no retry left: the replacement is dropped for [BError 2] *)
    inv Hw. cbn [bcost] in *. split; [assumption|]. pose proof (bcost_pos b1). lia.
  - destruct (IH _ _ _ _ Hw Hc1) as (A & B). split; [exact A|]. cbn [bcost]. lia.
Qed.

Lemma stack_handlers_fuel : forall hs b w b' w', stack_handlers b w hs = (b', w') -> Wok w -> Forall clean hs ->
  Wok w' /\ bcost b' + actcost (w_act w') <= bcost b + actcost (w_act w) + actcost hs.
Proof.
  induction hs as [|h rest IH]; intros b w b' w' Hs Hw Hcl; cbn [stack_handlers] in Hs.
  - inv Hs. split; [exact Hw|]. cbn. lia.
  - inversion Hcl as [|x l Hh Hrest]; subst. destruct (Wok_split _ Hw) as [Hdn Hact]. rewrite actcost_cons.
    destruct (w_act w) as [|a0 act0] eqn:Ea.
    + destruct (with_error_handler _ b h) as [r h'] eqn:Hw'.
      destruct (weh_fuel _ _ _ _ _ Hw' Hh) as (Hc' & Hcost).
      destruct r as [b1|b1].
      * apply IH in Hs; [|unfold Wok; cbn [w_dn w_act]; apply Forall_app; split; [exact Hdn|repeat constructor; exact Hc']|exact Hrest].
        destruct Hs as [A B]. split; [exact A|]. cbn [w_act] in B. rewrite actcost_cons in B. cbn [actcost fold_right] in *. lia.
      * apply IH in Hs; [|unfold Wok; cbn [w_dn w_act]; rewrite app_nil_r; apply Forall_app; split; [exact Hdn|repeat constructor; exact Hc']|exact Hrest].
        destruct Hs as [A B]. split; [exact A|]. cbn [w_act] in B. cbn [actcost fold_right] in *. lia.
    + apply IH in Hs; [| |exact Hrest].
      * destruct Hs as [A B]. split; [exact A|]. cbn [w_act] in B. rewrite actcost_app in B.
        rewrite !actcost_cons in *. change (actcost []) with 0 in B. lia.
      * unfold Wok. cbn [w_dn w_act]. rewrite <- Ea in *. apply Forall_app. split; [exact Hdn|].
        apply Forall_app. split; [exact Hact|repeat constructor; exact Hh].
Qed.

Section Methods.
  Variable H : bytes -> bytes.
  Variable cfg : vcfg.
  Variable fuel : nat.

  Lemma byte_slice_buffer_fuel data cbs k m : length data < fuel -> good_param m = true ->
    o_err (byte_slice_buffer fuel data cbs k m) <> EFuel.
  Proof.
    intros Hl Hg. destruct m; cbn [byte_slice_buffer good_param] in *.
    - destruct (max <? lenN data)%N; cbn; congruence.
    - cbn. congruence.
    - destruct (off <? 0)%Z; [cbn; congruence|].
      destruct (lenN data <? Z.to_N off)%N; [cbn; congruence|].
      cbn [o_err]. destruct (lenN (takeN plen (dropN (Z.to_N off) data)) <? plen)%N; congruence.
    - apply N.leb_le in Hg.
      destruct (valid_offset (lenN data) off); [|cbn; congruence].
      destruct (drain (bs_read max) fuel [] (dropN (Z.to_N off) data)) as [[out e] s] eqn:Hd.
      cbn beta iota zeta.
      destruct (extra_reads (bs_read max) extra s) as [ex s2].
      cbn beta iota zeta. cbn [o_err].
      refine (proj1 (drain_fuel _ _ _ _ (bs_read_prog max Hg) fuel _ _ _ _ _ I _ Hd)).
      pose proof (len_dropN_le (Z.to_N off) data). lia.
    - destruct (caps_good _ Hg) as [Hcaps Hlast].
      destruct (rconsume bb_read fuel caps (last_cap caps) [] data) as [[out e] s] eqn:Hrc.
      cbn beta iota zeta.
      destruct (rextra bb_read extra (last_cap caps) s) as [ex s2].
      cbn beta iota zeta. cbn [o_err].
      exact (proj1 (rconsume_fuel _ _ _ bb_read_prog fuel _ _ _ _ _ _ _ Hcaps Hlast I Hl Hrc)).
    - destruct (max <? lenN data)%N; cbn; congruence.
    - cbn. congruence.
  Qed.

  Lemma plain_fuel b m : 4 * bcost b <= fuel -> good_param m = true -> o_err (plain H cfg fuel b m) <> EFuel.
  Proof.
    intros Hf Hg. destruct b as [evs|evs at_|d|c]; cbn [plain bcost] in *.
    - apply chunk_fuel_suffices; [rewrite script_fuel_measure; lia|exact Hg].
    - apply reader_fuel_suffices; [rewrite script_fuel_measure; lia|exact Hg].
    - apply byte_slice_buffer_fuel; [lia|exact Hg].
    - destruct m; cbn; congruence.
  Qed.

  Lemma answers_left_ansleft act : answers_left act = ansleft act.
  Proof. reflexivity. Qed.

  Lemma try_stack_fuel : forall n m b w cbs d e cbs' w', good_param m = true ->
    4 * (bcost b + actcost (w_act w)) <= fuel -> ansleft (w_act w) < n -> Wok w ->
    try_stack H cfg fuel n m b w cbs = (d, e, cbs', w') -> e <> EFuel /\ Wok w'.
  Proof.
    induction n as [|n IH]; intros m b w cbs d e cbs' w' Hg Hf Hn Hw Ht; [lia|].
    rewrite try_stack_eq in Ht. cbv zeta in Ht.
    pose proof (plain_fuel b m ltac:(lia) Hg) as Hp.
    set (o := plain H cfg fuel b m) in *.
    set (w1 := retire w (closes_of b o)) in *.
    assert (Hw1 : Wok w1) by (apply Wok_retire; exact Hw).
    destruct (Wok_split _ Hw1) as [Hdn Hact].
    destruct (op_done (o_err o)) eqn:Hop.
    - inv Ht. split; [intros E; rewrite E in Hop; discriminate|]. apply Wok_all_done. exact Hw1.
    - destruct (escalate (o_err o) (w_act w1)) as [[[ob e'] passed] act'] eqn:He.
      destruct (escalate_fuel _ _ _ _ _ _ He Hp Hact) as (E1 & E2 & E3 & E4 & E5).
      destruct ob as [b'|].
      + destruct E5 as (E5 & E6). change (w_act w1) with (w_act w) in *.
        eapply IH; [exact Hg| | | |exact Ht]; cbn [after_replace w_act].
        * lia.
        * lia.
        * apply Wok_after_replace; assumption.
      + inv Ht. split; [exact E1|]. apply Wok_all_done, Wok_after_failure; assumption.
  Qed.

  Notation IV := (Iv (Isch fuel) musch fuel).
  Notation MV := (muv musch).
  Notation IR := (Iv (Ishr fuel) mushr fuel).
  Notation MR := (muv mushr).

  Lemma shv_read_prog max : (1 <= max)%N -> cprog (fun _ => 0) (shv_read H cfg fuel max) IV MV.
  Proof. intros Hmax. exact (vcr_read_prog _ _ _ _ H cfg fuel (sch_read_prog fuel max Hmax)). Qed.

  Lemma shv_close_inv s : IV s -> IV (shv_close s) /\ MV (shv_close s) <= MV s.
  Proof.
    unfold Iv, muv, shv_close. intros (A & B & C). vsimp.
    destruct (sch_close_fuel fuel _ A) as [A1 A2]. rsplit; auto; lia.
  Qed.

  Lemma shv_init_inv b w : 4 * (bcost b + actcost (w_act w)) <= fuel -> Wok w ->
    IV (vinit cfg (sch_init fuel b w)) /\ MV (vinit cfg (sch_init fuel b w)) < fuel.
  Proof.
    intros Hf Hw. destruct (sch_init_fuel fuel b w Hf Hw) as [A B].
    unfold Iv, muv, vinit. vsimp. rsplit; auto; try congruence; lia.
  Qed.

  Lemma shrv_read_prog : rprog (shrv_read H cfg fuel) IR MR.
  Proof. exact (vr_read_prog _ _ _ H cfg fuel (shr_read_prog fuel)). Qed.

  Lemma shrv_init_inv b w : 4 * (bcost b + actcost (w_act w)) <= fuel -> Wok w ->
    IR (vinit cfg (shr_init fuel b w)) /\ MR (vinit cfg (shr_init fuel b w)) < fuel.
  Proof.
    intros Hf Hw. destruct (shr_init_fuel fuel b w Hf Hw) as [A B].
    unfold Iv, muv, vinit. vsimp. rsplit; auto; try congruence; lia.
  Qed.

  Lemma IV_Wok s : IV s -> Wok (sc_w (v_u s)).
  Proof. intros ((_ & _ & Hw) & _). exact Hw. Qed.
  Lemma IR_Wok s : IR s -> Wok (sr_w (v_u s)).
  Proof. intros ((_ & _ & Hw) & _). exact Hw. Qed.

  Theorem ehs_method_fuel b w m : good_param m = true ->
    4 * (bcost b + actcost (w_act w)) <= fuel -> Wok w ->
    y_err (ehs_method H cfg fuel b w m) <> EFuel /\ clean_logs (y_logs (ehs_method H cfg fuel b w m)).
  Proof.
    intros Hg Hf Hw.
    assert (Hdisc : clean_logs (logs_of (discarded H cfg fuel b w))).
    { apply Wok_logs. unfold discarded. apply Wok_retire, Wok_all_done. exact Hw. }
    assert (Hts : forall m' d e cbs w',
              try_stack H cfg fuel (S (answers_left (w_act w))) m' b w [] = (d, e, cbs, w') ->
              good_param m' = true -> e <> EFuel /\ clean_logs (logs_of w')).
    { intros m' d e cbs w' Ht Hg'.
      destruct (try_stack_fuel _ _ _ _ _ _ _ _ _ Hg' Hf (Nat.lt_succ_diag_r _) Hw Ht) as [A B].
      split; [exact A|apply Wok_logs; exact B]. }
    destruct m; cbn [ehs_method good_param] in *.
    - (* ToByteSlice *)
      destruct (try_stack _ _ _ _ _ _ _ _) as [[[d e] cbs] w'] eqn:Ht. exact (Hts _ _ _ _ _ Ht eq_refl).
    - (* IntoWriter *)
      unfold into_writer_cr.
      destruct (shv_init_inv b w Hf Hw) as [I0 M0].
      destruct (drain _ fuel [] _) as [[out e] st] eqn:Hd. cbn beta iota zeta. cbn [y_err y_logs].
      destruct (drain_fuel _ _ _ _ (shv_read_prog 65536%N ltac:(lia)) fuel _ _ _ _ _ I0 M0 Hd) as (A & B & C).
      split; [destruct e; congruence|]. apply Wok_logs. apply IV_Wok. apply shv_close_inv. exact B.
    - (* ReadAt *)
      destruct (try_stack _ _ _ _ _ _ _ _) as [[[d e] cbs] w'] eqn:Ht. exact (Hts _ _ _ _ _ Ht eq_refl).
    - (* ToChunkReader *)
      apply N.leb_le in Hg.
      destruct (valid_offset (g_size cfg) off); [|cbn [y_err y_logs]; split; [congruence|exact Hdisc]].
      destruct (shv_init_inv b w Hf Hw) as [I0 M0].
      pose proof (shv_read_prog max Hg) as PV.
      destruct (offset_init_fuel0 _ _ shv_close _ _ PV shv_close_inv fuel off _ I0 M0) as [Io0 Mo0].
      set (o0 := offset_init (shv_read H cfg fuel max) shv_close fuel off (vinit cfg (sch_init fuel b w))) in *.
      pose proof (offset_read_prog0 _ _ _ _ PV) as PO.
      destruct (drain (offset_read (shv_read H cfg fuel max)) fuel [] o0) as [[out e] o] eqn:Hd.
      cbn beta iota zeta.
      destruct (drain_fuel _ _ _ _ PO fuel _ _ _ _ _ Io0 ltac:(lia) Hd) as (A & B & C).
      destruct (extra_reads (offset_read (shv_read H cfg fuel max)) extra o) as [ex o2] eqn:He.
      cbn beta iota zeta. cbn [y_err y_logs].
      pose proof (extra_reads_inv _ _ _ _ PO _ _ _ _ B He) as B2.
      split; [exact A|]. apply Wok_logs. apply IV_Wok.
      exact (proj1 (proj1 (offset_close_inv0 shv_close _ _ shv_close_inv _ B2))).
    - (* ToReader *)
      destruct (caps_good _ Hg) as [Hcaps Hlast].
      destruct (shrv_init_inv b w Hf Hw) as [I0 M0].
      destruct (rconsume _ fuel caps (last_cap caps) [] _) as [[out e] st] eqn:Hrc.
      cbn beta iota zeta.
      destruct (rconsume_fuel _ _ _ shrv_read_prog fuel _ _ _ _ _ _ _ Hcaps Hlast I0 M0 Hrc) as (A & B & C).
      destruct (rextra _ extra (last_cap caps) st) as [ex st2] eqn:He.
      cbn beta iota zeta. cbn [y_err y_logs].
      pose proof (rextra_inv _ _ _ shrv_read_prog _ _ _ _ _ B He) as B2.
      split; [exact A|]. apply Wok_logs. vsimp.
      destruct B2 as (B2 & _). exact (proj2 (proj2 (proj1 (shr_close_fuel fuel _ B2)))).
    - (* CloneCopy *)
      destruct (try_stack _ _ _ _ _ _ _ _) as [[[d e] cbs] w'] eqn:Ht.
      destruct (Hts _ _ _ _ _ Ht eq_refl) as [A B].
      destruct e; cbn [y_err y_logs]; (split; [congruence|exact B]).
    - (* Discard *)
      cbn [y_err y_logs]. split; [congruence|exact Hdisc].
  Qed.

  Definition hs0 (anss : list (list answer)) : list hst := map (fun a => mkHst a []) anss.
  Definition totcost (b0 : bufscript) (anss : list (list answer)) : nat := bcost b0 + actcost (hs0 anss).

  Lemma hs0_clean anss : Forall clean (hs0 anss).
  Proof. unfold hs0, clean. rewrite Forall_map. apply Forall_forall. intros a _. cbn. auto. Qed.

  Theorem run_stack_fuel b0 anss m : 4 * totcost b0 anss <= fuel -> good_param m = true ->
    y_err (run_stack H cfg fuel b0 anss m) <> EFuel /\ clean_logs (y_logs (run_stack H cfg fuel b0 anss m)).
  Proof.
    intros Hf Hg. unfold run_stack, totcost in *. fold (hs0 anss).
    destruct (stack_handlers b0 (mkW [] [] []) (hs0 anss)) as [b w] eqn:Hs.
    destruct (stack_handlers_fuel _ _ _ _ _ Hs ltac:(constructor) (hs0_clean anss)) as [Hw Hc].
    cbn [w_act actcost fold_right] in Hc.
    destruct (w_act w) as [|a act] eqn:Ea.
    - cbn [y_err y_logs]. split; [apply plain_fuel; [lia|exact Hg]|apply Wok_logs; exact Hw].
    - apply ehs_method_fuel; [exact Hg|rewrite Ea; lia|exact Hw].
  Qed.
End Methods.

Lemma buf_fuel_bcost b : buf_fuel b = 4 * bcost b.
Proof. destruct b; cbn [buf_fuel bcost]; rewrite ?script_fuel_measure; lia. Qed.
Lemma ans_fuel_anscost ans : ans_fuel ans = 4 * anscost ans.
Proof.
  induction ans as [|a r IH]; [reflexivity|]. rewrite anscost_cons. unfold ans_fuel in *. cbn [fold_right].
  rewrite IH. destruct a; cbn [acost]; rewrite ?buf_fuel_bcost; lia.
Qed.
Lemma stack_fuel_totcost b0 anss : stack_fuel b0 anss = 4 * totcost b0 anss.
Proof.
  unfold stack_fuel, totcost. rewrite buf_fuel_bcost.
  assert (E : fold_right (fun ans n => ans_fuel ans + n) 0 anss = 4 * actcost (hs0 anss)).
  { induction anss as [|a r IH]; [reflexivity|]. cbn [fold_right hs0 map]. fold (hs0 r).
    rewrite actcost_cons, IH, ans_fuel_anscost. cbn [h_answers]. lia. }
  rewrite E. lia.
Qed.

Theorem stack_fuel_suffices H cfg fuel b0 anss m :
  stack_fuel b0 anss <= fuel -> good_param m = true ->
  y_err (run_stack H cfg fuel b0 anss m) <> EFuel /\
  Forall (fun l => ~ In (HOnError EFuel) l) (y_logs (run_stack H cfg fuel b0 anss m)).
Proof. intros Hf Hg. apply run_stack_fuel; [rewrite <- stack_fuel_totcost; exact Hf|exact Hg]. Qed.

(** [case_fuel], the fuel of a single handler, is [stack_fuel] of a stack of one. *)
Lemma case_fuel_stack_fuel b0 ans : case_fuel b0 ans = stack_fuel b0 [ans].
Proof. unfold case_fuel, stack_fuel. cbn [fold_right]. lia. Qed.
