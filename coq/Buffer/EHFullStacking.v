(** C16 — applying the handlers ([WithErrorHandler] on buffers in a known
    state consults the handler at once) is part of the level-wise specification
    too: after stacking, [stitch_stack] of the ORIGINAL buffer and all scripts
    is [stitch_stack] of the buffer in use and the scripts of the active levels,
    with the offers made so far in front.  Together with the closed form of the
    nested readers: the stream of a whole stack, its final error and every
    level's OnError log are [stitch_stack (piece_of b0 0) anss]. *)
From Coq Require Import List ZArith NArith Bool Lia.
From BBS Require Import Buffer.Source Buffer.ErrHandler Buffer.StreamProofs Buffer.ValidateProofs
  Buffer.ValidateReaderProofs Buffer.ErrHandlerProofs Buffer.EHFullExact Buffer.EHFullStackExact
  Run.R16.
Import ListNotations.
Open Scope N_scope.

Lemma stitch_stack_length : forall anss x t, length (snd (stitch_stack x t anss)) = length anss.
Proof.
  induction anss as [|a r IH]; intros x t; cbn [stitch_stack]; [reflexivity|].
  destruct (stitch_from x t a) as [[p1 t1] offs]. specialize (IH p1 t1).
  destruct (stitch_stack p1 t1 r) as [[p2 t2] offss]. cbn in *. now rewrite IH.
Qed.

Definition piece0 (b : bufscript) : bytes * err := piece_of b 0.
Definition sf (b : bufscript) (ans : list answer) : bytes * err * list err :=
  let '(p, t) := piece0 b in stitch_from p t ans.

Lemma piece0_known b : match b with BBytes d => piece0 b = (d, EEof) | BError c => piece0 b = ([], ECode c) | _ => True end.
Proof.
  destruct b; try exact I; unfold piece0, piece_of, ucontent.
  - assert (E : 0 <=? lenN data = true) by (apply N.leb_le; lia). rewrite E, dropN_0. reflexivity.
  - reflexivity.
Qed.

Lemma weh_spec : forall n b h r h',
  with_error_handler n b h = (r, h') -> (length (h_answers h) < n)%nat ->
  exists new, oel h' = oel h ++ new /\
    match r with
    | inl b' => sf b (h_answers h) = (let '(d, e, offs) := sf b' (h_answers h') in (d, e, new ++ offs))
    | inr b' => sf b (h_answers h) = (fst (piece0 b'), snd (piece0 b'), new) /\
                match b' with BBytes _ | BError _ => True | _ => False end
    end.
Proof.
  induction n as [|n IH]; intros b h r h' Hw Hl; [lia|].
  destruct b as [evs|evs a|d|c]; cbn [with_error_handler] in Hw.
  - inv Hw. exists []. rewrite app_nil_r. split; [reflexivity|]. destruct (sf _ _) as [[d e] offs]. reflexivity.
  - inv Hw. exists []. rewrite app_nil_r. split; [reflexivity|]. destruct (sf _ _) as [[d e] offs]. reflexivity.
  - inv Hw. exists []. rewrite oel_done, app_nil_r. split; [reflexivity|]. split; [|exact I].
    unfold sf. rewrite (piece0_known (BBytes d)). reflexivity.
  - destruct (on_error h (ECode c)) as [a h1] eqn:Ho.
    pose proof (oel_on_error h (ECode c)) as Hoe. rewrite Ho in Hoe. cbn [snd] in Hoe.
    destruct a as [b1|c1].
    + pose proof (on_error_len_replace _ _ _ _ Ho) as Hlen.
      destruct (IH _ _ _ _ Hw ltac:(lia)) as (new & Hn & Hm).
      exists (ECode c :: new). split; [rewrite Hn, Hoe, <- app_assoc; reflexivity|].
      assert (Hsf : sf (BError c) (h_answers h) =
                    let '(d, e, offs) := sf b1 (h_answers h1) in (d, e, ECode c :: offs)).
      { unfold sf at 1. rewrite (piece0_known (BError c)). rewrite (on_error_replace _ _ _ _ Ho). cbn [stitch_from].
        unfold sf. destruct (piece0 b1) as [p1 t1] eqn:Hp1. unfold piece0 in Hp1.
        pose proof (stitch_as_from [] b1 0 (h_answers h1) p1 t1 eq_refl Hp1) as Has. cbn [app] in Has.
        rewrite Has. cbn [lenN length N.of_nat]. change (lenN []) with 0.
        destruct (stitch b1 0 (h_answers h1)) as [[d e] offs]. reflexivity. }
      rewrite Hsf. destruct r as [b'|b'].
      * rewrite Hm. destruct (sf b' (h_answers h')) as [[d e] offs]. reflexivity.
      * destruct Hm as (Hm & Hk). rewrite Hm. split; [reflexivity|exact Hk].
    + inv Hw. exists [ECode c]. rewrite oel_done. split; [exact Hoe|]. split; [|exact I].
      unfold sf. rewrite (piece0_known (BError c)), (piece0_known (BError c1)). cbn [fst snd].
      apply stitch_from_fail; [congruence|rewrite Ho; reflexivity].
Qed.

Lemma stitch_stack_addl x t a r new d e offs :
  stitch_from x t a = (d, e, new ++ offs) ->
  forall x' t' a', stitch_from x' t' a' = (d, e, offs) ->
  stitch_stack x t (a :: r) =
  (let '(D, E, offss) := stitch_stack x' t' (a' :: r) in
   (D, E, match offss with o :: os => (new ++ o) :: os | [] => [] end)).
Proof.
  intros H1 x' t' a' H2. cbn [stitch_stack]. rewrite H1, H2.
  destruct (stitch_stack d e r) as [[D E] offss]. reflexivity.
Qed.

Lemma stack_push : forall hs b w b' w',
  stack_handlers b w hs = (b', w') -> w_act w <> [] ->
  b' = b /\ w_dn w' = w_dn w /\ w_act w' = w_act w ++ hs.
Proof.
  induction hs as [|h rest IH]; intros b w b' w' Hs Hn; cbn [stack_handlers] in Hs.
  - inv Hs. rewrite app_nil_r. auto.
  - destruct (w_act w) as [|a0 act0] eqn:Ea; [congruence|].
    destruct (IH _ _ _ _ Hs ltac:(cbn; discriminate)) as (-> & Hd & Ha). cbn in Hd, Ha.
    rsplit; auto. rewrite Ha, <- app_assoc. reflexivity.
Qed.

Definition fresh (hs : list hst) : Prop := Forall (fun h => h_log h = []) hs.
Lemma fresh_oel hs : fresh hs -> map oel hs = map (fun _ => []) hs.
Proof. intros Hf. apply map_ext_in. intros h Hin. unfold fresh in Hf. rewrite Forall_forall in Hf. unfold oel. now rewrite (Hf h Hin). Qed.

Lemma zipo_nils : forall (hs : list hst) offss, length offss = length hs -> zipo (map (fun _ => []) hs) offss = offss.
Proof.
  induction hs as [|h r IH]; intros [|o os] Hl; cbn in *; try reflexivity; try discriminate.
  f_equal. apply IH. lia.
Qed.

Theorem stacking_spec : forall hs b w b' w',
  stack_handlers b w hs = (b', w') -> w_act w = [] -> fresh hs ->
  exists newdn,
    w_dn w' = w_dn w ++ newdn /\
    stitch_stack (fst (piece0 b)) (snd (piece0 b)) (map h_answers hs) =
    (let '(D, E, offss) := stitch_stack (fst (piece0 b')) (snd (piece0 b')) (map h_answers (w_act w')) in
     (D, E, map oel newdn ++ zipo (map oel (w_act w')) offss)).
Proof.
  induction hs as [|h rest IH]; intros b w b' w' Hs Hw Hf.
  - cbn [stack_handlers] in Hs. inv Hs. exists []. rewrite app_nil_r, Hw. cbn. split; reflexivity.
  - inversion Hf as [|x l Hh Hrest]; subst. cbn [stack_handlers] in Hs. rewrite Hw in Hs.
    destruct (with_error_handler _ b h) as [r h'] eqn:Hweh.
    destruct (weh_spec _ _ _ _ _ Hweh ltac:(lia)) as (new & Hn & Hm).
    assert (Hoh : oel h = []) by (unfold oel; rewrite Hh; reflexivity). rewrite Hoh in Hn. cbn [app] in Hn.
    destruct r as [b1|b1].
    + (* the level becomes active; the others are pushed *)
      destruct (stack_push _ _ _ _ _ Hs ltac:(cbn; discriminate)) as (-> & Hd & Ha). cbn [w_dn w_act] in Hd, Ha.
      exists []. rewrite app_nil_r. split; [exact Hd|]. rewrite Ha. cbn [map app].
      unfold sf in Hm. destruct (piece0 b) as [p t]. destruct (piece0 b1) as [p1 t1]. cbn [fst snd].
      destruct (stitch_from p1 t1 (h_answers h')) as [[d e] offs] eqn:Hsf1.
      rewrite (stitch_stack_addl _ _ _ _ new d e offs Hm _ _ _ Hsf1).
      pose proof (stitch_stack_length (h_answers h' :: map h_answers rest) p1 t1) as Hlen.
      destruct (stitch_stack p1 t1 (h_answers h' :: map h_answers rest)) as [[D E] offss]. cbn [snd] in Hlen.
      destruct offss as [|o os]; [discriminate|]. cbn [zipo]. rewrite Hn.
      rewrite (fresh_oel _ Hrest), zipo_nils; [reflexivity|]. cbn in Hlen. rewrite map_length in Hlen. lia.
    + (* the level is finished at once; go on with the buffer it left *)
      destruct Hm as (Hm & _).
      destruct (IH _ _ _ _ Hs eq_refl Hrest) as (newdn & Hd & Hspec). cbn [w_dn] in Hd.
      exists (h' :: newdn). split; [rewrite Hd, <- app_assoc; reflexivity|].
      cbn [map stitch_stack]. unfold sf in Hm. destruct (piece0 b) as [p t]. cbn [fst snd]. rewrite Hm, Hspec.
      destruct (stitch_stack _ _ (map h_answers (w_act w'))) as [[D E] offss]. cbn [map app]. rewrite Hn. reflexivity.
Qed.

Lemma weh_wf : forall n b h r h',
  with_error_handler n b h = (r, h') -> wf_buf b -> Forall wf_ans (h_answers h) ->
  wf_buf (match r with inl b' | inr b' => b' end) /\ Forall wf_ans (h_answers h').
Proof.
  exact (weh_ok wf_buf (fun _ => I)).
Qed.

Lemma stack_handlers_wf : forall hs b w b' w',
  stack_handlers b w hs = (b', w') -> wf_buf b -> hs_wf (w_act w) -> hs_wf hs ->
  wf_buf b' /\ hs_wf (w_act w').
Proof.
  exact (stack_handlers_ok wf_buf (fun _ => I)).
Qed.

Definition wf_case (b0 : bufscript) (anss : list (list answer)) : Prop :=
  wf_buf b0 /\ Forall (Forall wf_ans) anss.

Lemma stacked_spec b0 anss b w :
  stack_handlers b0 (mkW [] [] []) (map (fun a => mkHst a []) anss) = (b, w) ->
  wf_case b0 anss ->
  wf_buf b /\ hs_wf (w_act w) /\
  (let '(p0, t0) := piece_of b0 0 in stitch_stack p0 t0 anss) =
  (let '(D, E, offss) := (let '(p, t) := piece_of b 0 in stitch_stack p t (map h_answers (w_act w))) in
   (D, E, map oel (w_dn w) ++ zipo (map oel (w_act w)) offss)).
Proof.
  intros Hs (Hwb & Hwa).
  assert (Hhs : hs_wf (map (fun a => mkHst a []) anss)).
  { unfold hs_wf. rewrite Forall_map. cbn. exact Hwa. }
  destruct (stack_handlers_wf _ _ _ _ _ Hs Hwb ltac:(constructor) Hhs) as (Hb & Hw).
  rsplit; auto.
  assert (Hf : fresh (map (fun a => mkHst a []) anss)) by (unfold fresh; rewrite Forall_map; apply Forall_forall; auto).
  destruct (stacking_spec _ _ _ _ _ Hs eq_refl Hf) as (newdn & Hd & Hspec). cbn [w_dn app] in Hd.
  rewrite map_map in Hspec. cbn [h_answers] in Hspec. rewrite map_id in Hspec.
  unfold piece0 in Hspec. destruct (piece_of b0 0) as [p0 t0]. destruct (piece_of b 0) as [p t]. cbn [fst snd] in Hspec.
  rewrite Hspec, Hd. reflexivity.
Qed.

Theorem whole_stack_chunk_stream ifuel fuel max b0 anss b w out e r' :
  stack_handlers b0 (mkW [] [] []) (map (fun a => mkHst a []) anss) = (b, w) -> w_act w <> [] ->
  drains (sch_read ifuel fuel max) (sch_init ifuel b w) out e r' ->
  wf_case b0 anss -> e <> EFuel -> Forall (fun h => ~ In EFuel (oel h)) (lv (sc_w r')) ->
  (let '(p0, t0) := piece_of b0 0 in stitch_stack p0 t0 anss) = (out, e, oews (sc_w r')).
Proof.
  intros Hs Hnn Hd Hwf Hne Hnf. destruct (stacked_spec _ _ _ _ Hs Hwf) as (Hb & Hw & Hspec).
  destruct (stack_chunk_stream_is_stitch_stack _ _ _ _ _ _ _ _ Hd Hb Hw Hnn Hne Hnf) as (offss & Hss & Ho & _).
  rewrite Hspec, Hss, Ho. reflexivity.
Qed.

Theorem whole_stack_reader_stream fuel b0 anss b w out e r' :
  stack_handlers b0 (mkW [] [] []) (map (fun a => mkHst a []) anss) = (b, w) -> w_act w <> [] ->
  rdrains (shr_read fuel) (shr_init fuel b w) out e r' ->
  wf_case b0 anss -> e <> EFuel -> Forall (fun h => ~ In EFuel (oel h)) (lv (sr_w r')) ->
  (let '(p0, t0) := piece_of b0 0 in stitch_stack p0 t0 anss) = (out, e, oews (sr_w r')).
Proof.
  intros Hs Hnn Hd Hwf Hne Hnf. destruct (stacked_spec _ _ _ _ Hs Hwf) as (Hb & Hw & Hspec).
  destruct (stack_reader_stream_is_stitch_stack _ _ _ _ _ _ Hd Hb Hw Hnn Hne Hnf) as (offss & Hss & Ho & _).
  rewrite Hspec, Hss, Ho. reflexivity.
Qed.
