(** C09 — casValidatingReader over ANY underlying io.Reader with
    content function [cont]: where a failure comes from ([rorigin]), hence
    which error it is ([expected_err]); the Go io helpers around the
    validated reader report the validator's own sticky error. *)
From Coq Require Import List ZArith NArith Bool Lia.
From BBS Require Import Buffer.Source Buffer.Validate Buffer.Convert Buffer.StreamProofs Buffer.ValidateProofs
  Buffer.ValidateReaderProofs Buffer.C09FullValidate.
Import ListNotations.
Open Scope N_scope.

Section VrOrigin.
  Variable H : bytes -> bytes.
  Variable cfg : vcfg.
  Variable S : Type.
  Variable rd : N -> S -> (bytes * err) * S.
  Variable fuel : nat.
  Variable cont : S -> bytes * err.
  Hypothesis rd_spec : forall cap s c e s', rd cap s = ((c, e), s') ->
    match e with
    | ENone => cont s = (c ++ fst (cont s'), snd (cont s'))
    | _ => cont s = (c, e)
    end.
  Hypothesis rd_no_unexp : forall cap s c e s', rd cap s = ((c, e), s') -> e <> EUnexp.

  Notation vrd := (vr_read H cfg rd fuel).
  Notation RInv := (RInv H cfg S cont).

  Definition rorigin (s0 : S) (e : err) : Prop :=
    e = EFuel \/
    (e = ECode (g_code cfg) /\ ~ valid_reader H cfg cont s0 /\
     (g_size cfg < lenN (fst (cont s0)) \/ snd (cont s0) = EEof)) \/
    (e = snd (cont s0) /\ e <> EEof /\ lenN (fst (cont s0)) <= g_size cfg).

  Lemma rorigin_expected s0 e :
    rorigin s0 e -> e <> EFuel -> e = expected_err cfg (fst (cont s0)) (snd (cont s0)).
  Proof.
    unfold expected_err. intros [->|[(-> & _ & [Hl|Ht])|(-> & Hne & Hl)]] Hnf; [congruence| | |].
    - replace (g_size cfg <? lenN (fst (cont s0))) with true by (symmetry; apply N.ltb_lt; exact Hl). reflexivity.
    - rewrite Ht. destruct (g_size cfg <? lenN (fst (cont s0))); reflexivity.
    - replace (g_size cfg <? lenN (fst (cont s0))) with false by (symmetry; apply N.ltb_ge; exact Hl).
      destruct (snd (cont s0)); congruence.
  Qed.

  Lemma vr_origin_step s0 st out cap d e st' :
    RInv s0 st out -> v_err st = ENone -> vrd cap st = ((d, e), st') ->
    e <> ENone -> e <> EEof -> rorigin s0 e.
  Proof.
    intros Hi Herr Hr.
    exact (proj2 (proj2 (proj2 (proj2 (vr_read_step H cfg S rd fuel cont rd_spec rd_no_unexp _ _ _ _ _ _ _ Hi Hr)))) Herr).
  Qed.

  Definition RInv3 (s0 : S) (st : vst S) (out : bytes) : Prop :=
    RInv2 H cfg S cont s0 st out /\
    match v_err st with ENone | EEof => True | e => rorigin s0 e end.

  Lemma RInv3_init u0 : RInv3 u0 (vinit cfg u0) [].
  Proof. split; [apply RInv2_init|exact I]. Qed.

  Hypothesis rd_cap : forall cap s c e s', rd cap s = ((c, e), s') -> lenN c <= cap.

  Lemma vr_step3 s0 st out cap d e st' :
    RInv3 s0 st out -> vrd cap st = ((d, e), st') -> RInv3 s0 st' (out ++ d).
  Proof.
    intros [Hi Ho] Hr.
    destruct (vr_step2 H cfg S rd fuel cont rd_spec rd_no_unexp rd_cap _ _ _ _ _ _ _ Hi Hr) as (Hi' & He & _).
    split; [exact Hi'|]. rewrite He.
    destruct (err_none_dec (v_err st)) as [Herr|Herr].
    - destruct e; auto; eapply vr_origin_step; try eassumption; try congruence; apply Hi.
    - (* an earlier failure is reported again *)
      rewrite (vr_read_failed H cfg S rd fuel cap st Herr) in Hr. inv Hr. exact Ho.
  Qed.

  Definition RInvE (s0 : S) (st : vst S) : Prop := exists out, RInv3 s0 st out.
  Lemma RInvE_step s0 cap st r st' : RInvE s0 st -> vrd cap st = (r, st') -> RInvE s0 st'.
  Proof. intros (out & Hi) Hr. destruct r as [d e]. exists (out ++ d). eapply vr_step3; eassumption. Qed.

  Lemma RInv3_invalid s0 st out :
    RInv3 s0 st out -> ~ valid_reader H cfg cont s0 ->
    (lenN out < g_size cfg \/ out = []) /\ v_err st <> EEof /\
    (v_err st <> ENone -> v_err st <> EFuel ->
       v_err st = expected_err cfg (fst (cont s0)) (snd (cont s0))).
  Proof.
    intros [[[_ Hi] _] Ho] Hnv. destruct (v_err st).
    - destruct Hi as (_ & _ & _ & Hl & [Hpos|Hn]); (split; [|split; congruence]); [left; lia|right; assumption].
    - exfalso. apply Hnv. destruct Hi as (Hc & Hl & Hh). unfold valid_reader. rewrite Hc. auto.
    - rsplit; auto; [congruence|]. intros _ Hnf. apply rorigin_expected; assumption.
    - rsplit; auto; [congruence|]. intros _ Hnf. apply rorigin_expected; assumption.
    - rsplit; auto; congruence.
  Qed.

  Lemma RInv3_valid s0 st out :
    RInv3 s0 st out -> valid_reader H cfg cont s0 ->
    v_err st = ENone \/ v_err st = EEof \/ v_err st = EFuel.
  Proof.
    intros [_ Ho] Hv. destruct (v_err st) eqn:He; auto; exfalso.
    - destruct Ho as [Ho|[(_ & Hnv & _)|(Ht & Hne & _)]]; [discriminate|exact (Hnv Hv)|].
      destruct Hv as (Hv & _). congruence.
    - destruct Ho as [Ho|[(_ & Hnv & _)|(Ht & Hne & _)]]; [discriminate|exact (Hnv Hv)|].
      destruct Hv as (Hv & _). congruence.
  Qed.

  Lemma read_full_err : forall f want got st res e st',
    read_full_loop vrd f want got st = ((res, e), st') -> e <> ENone -> e <> EFuel ->
    (e = EUnexp /\ v_err st' = EEof) \/ v_err st' = e.
  Proof.
    induction f as [|f IH]; intros want got st res e st' Hr Hn Hf; cbn [read_full_loop] in Hr;
      destruct (want <=? lenN got); try (inv Hr; congruence).
    destruct (vrd (want - lenN got) st) as [[c e0] s1] eqn:Hv. pose proof (vr_read_err _ _ _ _ _ _ _ _ _ _ Hv) as He.
    destruct e0; try (destruct (want <=? lenN (got ++ c)); [inv Hr; congruence|]).
    - eapply IH; eassumption.
    - destruct (is_nil (got ++ c)); inv Hr; auto.
    - inv Hr. auto.
    - inv Hr. auto.
    - inv Hr. auto.
  Qed.

  Lemma copy_n_err : forall f left st e st',
    copy_n_loop vrd f left st = (e, st') -> e <> ENone -> e <> EFuel -> v_err st' = e.
  Proof.
    induction f as [|f IH]; intros left st e st' Hr Hn Hf; cbn [copy_n_loop] in Hr;
      destruct (left =? 0); try (inv Hr; congruence).
    destruct (vrd (N.min discard_buf left) st) as [[c e0] s1] eqn:Hv. pose proof (vr_read_err _ _ _ _ _ _ _ _ _ _ Hv) as He.
    destruct e0; try (destruct (left - lenN c =? 0); inv Hr; congruence).
    eapply IH; eassumption.
  Qed.

  Lemma copy_err : forall f cap w st w' e st',
    copy_loop vrd f cap w st = ((w', e), st') -> e <> ENone -> e <> EFuel -> v_err st' = e.
  Proof.
    induction f as [|f IH]; intros cap w st w' e st' Hr Hn Hf; cbn [copy_loop] in Hr; [inv Hr; congruence|].
    destruct (vrd cap st) as [[c e0] s1] eqn:Hv. pose proof (vr_read_err _ _ _ _ _ _ _ _ _ _ Hv) as He.
    destruct e0; try (inv Hr; congruence). eapply IH; eassumption.
  Qed.
End VrOrigin.
