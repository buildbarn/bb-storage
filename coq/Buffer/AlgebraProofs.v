From Coq Require Import List ZArith NArith Bool Lia.
From BBS Require Import Buffer.Algebra.
Import ListNotations.
Open Scope Z_scope.

Section Proofs.
  Variable D : list Z.
  Variable flt : fault.

  Notation wf := (wf D).
  Notation good := (good D).

  Lemma good_dg dg src : good dg src -> dg = Some (dlen D) /\ src = Some code_internal.
  Proof. exact (fun H => H). Qed.

  Lemma wf_node_fields n : wf n ->
    match n with
    | NBytes | NProto | NErr _ | NReaderAt => True
    | _ => good (node_dg n) (node_src n)
    end.
  Proof. destruct n; cbn; tauto. Qed.

  Lemma wf_decorate dg src id terr r :
    good dg src -> wf r -> wf (decorate true dg src id terr r).
  Proof. cbn. tauto. Qed.

  Lemma wf_cloneStream sv n : wf n -> wf (cloneStream true sv n).
  Proof.
    induction n; cbn; tauto.
  Qed.

  Lemma wf_withTask id terr n : wf n -> wf (withTask id terr n).
  Proof.
    destruct n; cbn; try (destruct (Z.eqb terr 0); cbn; tauto); tauto.
  Qed.

  Lemma wf_withEH h n : wf n -> wf (withEH h n).
  Proof. destruct n; cbn; tauto. Qed.

  Lemma wf_base k : wf (base_node D k).
  Proof. destruct k; cbn; unfold Algebra.good; tauto. Qed.

  Lemma wf_cloneCopy_generic max n (r : node) :
    match eval D flt n (MSlice max) with
    | Ok _ | Eof _ => BNode NBytes
    | Err c => BNode (NErr c)
    | Panic => BPanic
    end = BNode r -> wf r.
  Proof. destruct (eval D flt n (MSlice max)); intros H; inversion H; cbn; exact I. Qed.

  Lemma wf_cloneCopy max n r : wf n -> cloneCopy D flt true max n = BNode r -> wf r.
  Proof.
    revert r. induction n; intros r Hw H; cbn [cloneCopy] in H;
      try (inversion H; subst; exact Hw);
      try (eapply wf_cloneCopy_generic; exact H).
    destruct (cloneCopy D flt true max n) eqn:E; [discriminate|].
    inversion H; subst. cbn in Hw. destruct Hw as [Hg Hb].
    apply wf_decorate; [exact Hg|]. apply IHn; [exact Hb|reflexivity].
  Qed.

  Theorem build_wf p n : build D flt true p = BNode n -> wf n.
  Proof.
    revert n. induction p; intros n H; cbn [build] in H.
    1: inversion H; apply wf_base.
    all: destruct (build D flt true p); [discriminate|]; cbn [bbind] in H.
    1,2: inversion H; apply wf_cloneStream, IHp; reflexivity.
    1,2: eapply wf_cloneCopy; [apply IHp; reflexivity|exact H].
    - inversion H. apply wf_withTask, IHp. reflexivity.
    - inversion H. apply wf_withEH, IHp. reflexivity.
  Qed.

  Definition bytes (m : meth) : res :=
    match m with
    | MSize => Ok [Z.of_nat (dlen D)]
    | MWriter | MReader | MProto _ | MSlice _ => Ok D
    | MChunks off => Ok (skipn off D)
    | MReadAt len off => readat_pure D len off
    | MDiscard => Ok []
    end.

  (** Only an ill-formed node panics; GetSizeBytes answers with whatever size the node carries. *)
  Definition outcome (n : node) (m : meth) (r : res) : Prop :=
    match r with
    | Panic => ~ wf n
    | Err _ => True
    | Ok _ => m = MSize \/ r = bytes m
    | Eof _ => r = bytes m
    end.

  Lemma outcome_bytes n m : outcome n m (bytes m).
  Proof. unfold outcome. destruct m; cbn [bytes]; auto. unfold readat_pure. destruct (Nat.ltb _ _); auto. Qed.

  Lemma outcome_mono n b m r : (wf n -> wf b) -> outcome b m r -> outcome n m r.
  Proof. destruct r; cbn; auto. Qed.

  Lemma outcome_to_res n m s x : (s = SPanic -> ~ wf n) -> bytes m = Ok x -> outcome n m (to_res s x).
  Proof. intros Hp E. destruct s; cbn; [apply Hp; reflexivity|right; symmetry; exact E|exact I]. Qed.

  Lemma outcome_guard n m dg src (t : nat -> bool) r : (wf n -> good dg src) -> outcome n m r ->
    outcome n m (match dg with None => Panic | Some sz => if t sz then Err code_invalid_argument else r end).
  Proof.
    intros Hg H. destruct dg as [sz|]; [destruct (t sz); [exact I|exact H]|]. intros Hw. destruct (Hg Hw). discriminate.
  Qed.

  Lemma outcome_size n dg src : (wf n -> good dg src) -> outcome n MSize (size_of dg).
  Proof. intros Hg. destruct dg; cbn; [auto|]. intros Hw. destruct (Hg Hw). discriminate. Qed.

  Lemma outcome_chunks0 n m e : outcome n (MChunks 0) e -> bytes m = Ok D -> outcome n m e.
  Proof.
    destruct e; cbn; auto.
    - intros [H|H] E; [discriminate|right; rewrite E; exact H].
    - intros H; discriminate.
  Qed.

  Lemma outcome_after n m (e r : res) : outcome n (MChunks 0) e -> outcome n m r ->
    outcome n m (match e with Panic => Panic | Ok _ => r | Eof b => Eof b | Err c => Err c end).
  Proof. destruct e; cbn; auto. intros H; discriminate. Qed.

  Lemma srcres_nopanic : srcres flt <> SPanic.
  Proof. unfold srcres. destruct flt; discriminate. Qed.

  Lemma validate_panic dg src s : validate dg src s = SPanic -> ~ good dg src \/ s = SPanic.
  Proof.
    destruct dg, src; cbn; try (left; intros [? ?]; discriminate).
    destruct s as [|[]|]; intros H; try discriminate. right. reflexivity.
  Qed.

  Lemma map_err_panic f s : map_err f s = SPanic -> s = SPanic.
  Proof. destruct s; cbn; intros H; [reflexivity|discriminate..]. Qed.

  Lemma of_res_panic r : of_res r = SPanic -> r = Panic.
  Proof. destruct r; cbn; intros H; [reflexivity|discriminate..]. Qed.

  Lemma outcome_stream n dg src m : (wf n -> good dg src) -> outcome n m (streamkind D flt dg src m).
  Proof.
    intros Hg.
    assert (Hv : validate dg src (srcres flt) = SPanic -> ~ wf n).
    { intros E Hw. destruct (validate_panic _ _ _ E) as [H|H]; [exact (H (Hg Hw))|exact (srcres_nopanic H)]. }
    destruct m; cbn [streamkind]; try apply (outcome_size _ _ _ Hg); try apply outcome_bytes;
      try (apply (outcome_to_res _ _ _ _ Hv); reflexivity);
      try (apply (outcome_guard _ _ _ _ _ _ Hg), (outcome_to_res _ _ _ _ Hv); reflexivity).
    destruct (validate dg src (srcres flt)); [exact (Hv eq_refl)|apply outcome_bytes|exact I].
  Qed.

  Theorem eval_outcome n :
    (forall m, outcome n m (eval D flt n m)) /\ (wf n -> forall md, fst (ustream D flt n md) <> SPanic).
  Proof.
    assert (Hplain : forall n' m, outcome n' m (plain D m)).
    { intros n' m. destruct m; cbn [plain]; try (destruct (Nat.ltb _ _); [exact I|]); apply outcome_bytes. }
    induction n.
    1,2,4: split; [intros m; apply Hplain|intros _ md; cbn; discriminate].
    2,3: split; [intros m; apply outcome_stream; exact (fun H => H)|intros _ md; cbn; apply srcres_nopanic].
    - split; [intros m; destruct m; cbn; auto|intros _ md; cbn; discriminate].
    -
      destruct IHn as [He Hu].
      pose proof (fun Hw : wf (NCloned n dg src nv) => proj1 Hw) as Hg.
      assert (H0 : outcome (NCloned n dg src nv) (MChunks 0) (eval D flt n (MChunks 0)))
        by (apply (outcome_mono _ n); [intros [_ Hb]; exact Hb|apply He]).
      split.
      + intros m. destruct m; cbn [eval]; try apply (outcome_size _ _ _ Hg); try apply outcome_bytes;
          try (apply (outcome_chunks0 _ _ _ H0); reflexivity);
          try (apply (outcome_guard _ _ _ _ _ _ Hg), (outcome_chunks0 _ _ _ H0); reflexivity).
        * apply (outcome_after _ _ _ _ H0), outcome_bytes.
        * apply (outcome_after _ _ _ _ H0), (outcome_bytes _ (MChunks off)).
      + intros [_ Hb] md. cbn [ustream]. destruct nv; cbn [fst]; [|apply (Hu Hb)].
        intros E. apply of_res_panic in E. change (eval D flt n (MChunks 0) = Panic) in E.
        pose proof (He (MChunks 0)) as H. rewrite E in H. exact (H Hb).
    -
      destruct IHn as [He Hu].
      pose proof (fun Hw : wf (NTask n dg src id terr) => proj1 Hw) as Hg.
      assert (Hb : wf (NTask n dg src id terr) -> wf n) by (intros [_ Hb]; exact Hb).
      split.
      + intros m.
        assert (Hgen : forall m', outcome (NTask n dg src id terr) m'
                         (match eval D flt n m' with Ok x => if Z.eqb terr 0 then Ok x else Err terr | r => r end)).
        { intros m'. pose proof (outcome_mono _ n m' _ Hb (He m')) as H. destruct (eval D flt n m'); try exact H.
          destruct (Z.eqb terr 0); [exact H|exact I]. }
        destruct m; cbn [eval]; try apply Hgen; try apply (outcome_size _ _ _ Hg).
        pose proof (outcome_mono _ n MDiscard _ Hb (He MDiscard)) as H.
        destruct (eval D flt n MDiscard); cbn; auto.
      + intros Hw md. cbn [ustream]. pose proof (Hu (Hb Hw) md) as H.
        destruct md; cbn [fst]; [|exact H].
        destruct (fst (ustream D flt n ChunkMode)); [contradiction| |discriminate].
        destruct (Z.eqb terr 0); discriminate.
    -
      destruct IHn as [He Hu].
      pose proof (fun Hw : wf (NEH n h dg src) => proj1 Hw) as Hg.
      assert (Hb : wf (NEH n h dg src) -> wf n) by (intros [_ Hb]; exact Hb).
      assert (Hv : forall md, validate dg src (map_err (tr h) (fst (ustream D flt n md))) = SPanic ->
                              ~ wf (NEH n h dg src)).
      { intros md E Hw. destruct (validate_panic _ _ _ E) as [H|H]; [exact (H (proj1 Hw))|].
        exact (Hu (Hb Hw) md (map_err_panic _ _ H)). }
      split.
      + intros m.
        assert (Hgen : forall m', outcome (NEH n h dg src) m'
                         (match eval D flt n m' with Err c => Err (tr h c) | r => r end)).
        { intros m'. pose proof (outcome_mono _ n m' _ Hb (He m')) as H. destruct (eval D flt n m'); exact H || exact I. }
        destruct m; cbn [eval]; try apply Hgen; try apply (outcome_size _ _ _ Hg);
          try (apply (outcome_to_res _ _ _ _ (Hv _)); reflexivity);
          try (apply (outcome_guard _ _ _ _ _ _ Hg), (outcome_to_res _ _ _ _ (Hv _)); reflexivity).
        * pose proof (outcome_to_res _ MReader _ D (Hv ReaderMode) eq_refl) as H.
          destruct (to_res _ D); try exact H. destruct (Z.eqb _ 0); [exact H|exact I].
        * apply (outcome_mono _ n _ _ Hb), He.
      + intros Hw md. cbn [ustream fst]. intros E. exact (Hu (Hb Hw) md (map_err_panic _ _ E)).
  Qed.

  Lemma eval_nopanic n m : wf n -> eval D flt n m <> Panic.
  Proof. intros Hw E. pose proof (proj1 (eval_outcome n) m) as H. rewrite E in H. exact (H Hw). Qed.

  Lemma cloneCopy_nopanic max n : wf n -> cloneCopy D flt true max n <> BPanic.
  Proof.
    assert (Hgen : forall n', wf n' ->
              match eval D flt n' (MSlice max) with
              | Ok _ | Eof _ => BNode NBytes | Err c => BNode (NErr c) | Panic => BPanic
              end <> BPanic).
    { intros n' Hw. pose proof (eval_nopanic n' (MSlice max) Hw) as H.
      destruct (eval D flt n' (MSlice max)); try discriminate. contradiction. }
    induction n; intros Hw; cbn [cloneCopy]; try discriminate; try (apply Hgen; exact Hw).
    cbn in Hw. destruct Hw as [_ Hb]. specialize (IHn Hb).
    destruct (cloneCopy D flt true max n); [contradiction|discriminate].
  Qed.

  Theorem build_nopanic p : build D flt true p <> BPanic.
  Proof.
    induction p; cbn [build]; try discriminate;
      destruct (build D flt true p) eqn:E; try contradiction; cbn [bbind]; try discriminate;
      apply cloneCopy_nopanic; apply (build_wf p); exact E.
  Qed.

  Theorem run_nopanic p m : run D flt true p m <> Panic.
  Proof.
    unfold run. destruct (build D flt true p) eqn:E.
    - exfalso. exact (build_nopanic p E).
    - apply eval_nopanic, (build_wf p n E).
  Qed.

  Lemma handle_ok p m :
    exists n, build D flt true p = BNode n /\ wf n /\ eval D flt n m <> Panic.
  Proof.
    destruct (build D flt true p) eqn:E; [exfalso; exact (build_nopanic p E)|].
    exists n. split; [reflexivity|]. split; [exact (build_wf p n E)|].
    apply eval_nopanic, (build_wf p n E).
  Qed.

  Theorem size_preserved n : wf n ->
    (exists c, n = NErr c) \/ eval D flt n MSize = Ok [Z.of_nat (dlen D)].
  Proof.
    destruct n; cbn; intros Hw; try (right; reflexivity); try (left; eexists; reflexivity);
      right; try (destruct Hw as [-> _]; reflexivity); destruct Hw as [[-> _] _]; reflexivity.
  Qed.

  Definition completing (m : meth) : Prop := m <> MSize /\ m <> MDiscard.

  Lemma completing_chunks0 : completing (MChunks 0).
  Proof. split; discriminate. Qed.

  Theorem tasks_waited n : forall m, completing m -> incl (tasks n) (waits n m).
  Proof.
    induction n; intros m Hc; cbn [tasks waits]; try apply incl_refl.
    - destruct m; try (apply IHn; exact completing_chunks0); destruct Hc; congruence.
    - destruct m; try (apply incl_cons; [left; reflexivity|apply incl_tl; apply IHn; exact Hc]);
        destruct Hc; congruence.
    - destruct m; try (apply IHn; exact Hc); destruct Hc; congruence.
  Qed.

  Lemma eval_NErr c m : completing m -> eval D flt (NErr c) m = Err c.
  Proof. intros [_ H2]. destruct m; try reflexivity. congruence. Qed.

  Lemma eval_NTask b dg src id terr m : completing m ->
    eval D flt (NTask b dg src id terr) m =
    match eval D flt b m with Ok x => if Z.eqb terr 0 then Ok x else Err terr | r => r end.
  Proof. intros [H1 H2]. destruct m; try reflexivity; congruence. Qed.

  Lemma eval_withTask n id terr m : completing m ->
    eval D flt (withTask id terr n) m =
    match n with
    | NBytes | NProto | NReaderAt => if Z.eqb terr 0 then eval D flt n m else Err terr
    | NErr _ => eval D flt n m
    | _ => match eval D flt n m with Ok x => if Z.eqb terr 0 then Ok x else Err terr | r => r end
    end.
  Proof.
    intros Hc. destruct n; cbn [withTask node_dg node_src].
    1,2,4: destruct (Z.eqb terr 0); [reflexivity|apply eval_NErr; exact Hc].
    1: reflexivity.
    all: apply eval_NTask; exact Hc.
  Qed.

  (** A failed task turns every [Ok] of the decorated object into the task's
      error (the data error, if any, takes precedence). *)
  Theorem task_error_reported n id terr m x :
    terr <> 0 -> completing m -> eval D flt n m = Ok x ->
    eval D flt (withTask id terr n) m = Err terr.
  Proof.
    intros Ht Hc He. apply Z.eqb_neq in Ht. rewrite (eval_withTask n id terr m Hc).
    destruct n; rewrite ?He, ?Ht; try reflexivity.
    rewrite (eval_NErr _ _ Hc) in He. discriminate.
  Qed.

  Theorem task_data_error_first n id terr m :
    completing m -> (forall x, eval D flt n m <> Ok x) ->
    (exists c, n = NErr c) \/ n = NBytes \/ n = NProto \/ n = NReaderAt \/
    eval D flt (withTask id terr n) m = eval D flt n m.
  Proof.
    intros Hc Hn.
    destruct n; try tauto; try (left; eexists; reflexivity);
      right; right; right; right; rewrite (eval_withTask _ id terr m Hc);
      match goal with |- match ?e with _ => _ end = _ =>
        destruct e; try reflexivity; exfalso; eapply Hn; reflexivity end.
  Qed.

  Theorem task_kept_by_cloneStream sv n : incl (tasks n) (tasks (cloneStream true sv n)).
  Proof.
    induction n; cbn [cloneStream tasks decorate]; try apply incl_refl.
    apply incl_cons; [left; reflexivity|apply incl_tl; exact IHn].
  Qed.

  Theorem task_kept_by_cloneCopy max b dg src id terr r :
    cloneCopy D flt true max (NTask b dg src id terr) = BNode r -> In id (tasks r).
  Proof.
    cbn [cloneCopy]. destruct (cloneCopy D flt true max b); [discriminate|].
    intros H. inversion H. cbn. left. reflexivity.
  Qed.

  Theorem halves_equal p sib : build D flt true (CloneStreamL p sib) = build D flt true (CloneStreamR p sib).
  Proof. reflexivity. Qed.
  Theorem copy_halves_equal p max sib :
    build D flt true (CloneCopyL p max sib) = build D flt true (CloneCopyR p max sib).
  Proof. reflexivity. Qed.
End Proofs.

(** Finding F1: with decorateBuffer as on the pinned tree (digest and source
    not copied) a clone of a buffer with a task panics. *)
Lemma pinned_refuted :
  run [1; 2; 3] FNone false (CloneStreamL (WithTask (Base KReader) 0 0) MDiscard) MSize = Panic
  /\ run [1; 2; 3] FNone false (WithEH (CloneStreamL (WithTask (Base KReader) 0 0) MDiscard) 0) MWriter = Panic.
Proof. split; reflexivity. Qed.
