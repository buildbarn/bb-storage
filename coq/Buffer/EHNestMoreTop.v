(** C16N — the monitor on the model without fuel hypotheses: [out16N] runs the
    model on [16 + tree_fuel t], which suffices (EHNestMoreFuel.v), so no
    handler at any depth is offered the out-of-fuel marker and the run does not
    end in it.  The monitor sees error CODES; the marker's code is -3, so the
    hypothesis "no -3 among the offers" of [dom16N] becomes "no handler is
    offered the gRPC code -3" ([nom3], a code no script of the harness uses). *)
From Coq Require Import List ZArith NArith Bool Lia.
From BBS Require Import Common.Sx Buffer.Source Buffer.C09FuelSuffices Buffer.EHNest Buffer.EHNestRules
  Buffer.EHNestMoreFuel Buffer.EHNestMoreDone Run.R16N Run.R16NProofs.
Import ListNotations.
Open Scope Z_scope.

Definition nm3 (e : err) : bool := negb (err_eqb e (ECode (-3))).
Fixpoint nom3 (o : otree) : bool :=
  match o with
  | OLeaf _ => true
  | ONode offs _ kids => forallb nm3 offs && forallb nom3 kids
  end.

Lemma code_not_m3 e : nef e = true -> nm3 e = true -> negb (R16.code_of e =? -3) = true.
Proof.
  destruct e as [| | |c|]; cbn; intros A B; try reflexivity; try discriminate.
  unfold nm3 in B. cbn in B. exact B.
Qed.

Lemma noEF_nofuel : forall o, noEF o = true -> nom3 o = true -> nofuel (codes_of o) = true.
Proof.
  induction o as [k|offs d kids IH] using otree_ind2; intros Hn Hm; [reflexivity|].
  cbn [noEF nom3 codes_of nofuel] in *.
  apply andb_true_iff in Hn as (Hn1 & Hn2). apply andb_true_iff in Hm as (Hm1 & Hm2).
  rewrite forallb_forall in Hn1, Hn2, Hm1, Hm2. rewrite Forall_forall in IH.
  apply andb_true_iff. split; apply forallb_forall; intros z Hz; apply in_map_iff in Hz.
  - destruct Hz as (e & <- & He). apply code_not_m3; auto.
  - destruct Hz as (k & <- & Hk). apply IH; auto.
Qed.

Theorem out16N_no_fuel inp : good_param (n_meth (dec_case16N inp)) = true ->
  z_err (out16N inp) <> EFuel /\ noEF (z_tree (out16N inp)) = true.
Proof. intros Hg. unfold out16N. cbv zeta. apply tree_fuel_suffices; [apply le_n|exact Hg]. Qed.

(** the domain without a hypothesis on fuel *)
Definition dom16NF (inp : sx) : Prop :=
  let c := dec_case16N inp in
  tree_ok (n_obj c) (n_tree c) = true /\
  (match n_tree c with NW _ _ => True | NB _ => False end) /\
  good_param (n_meth c) = true /\
  nom3 (z_tree (out16N inp)) = true /\
  (forall x, z_err (out16N inp) = ECode x -> 0 < x) /\
  (tdepth (n_tree c) <= tree_depth_bound)%nat.
