(** C09 — the validating chunk reader over ANY underlying chunk reader with
    an account of where a failure comes from ([origin2]): the Source's code
    is produced only when the stream is too long or has ended with io.EOF,
    and an I/O error of the stream is passed through only when at most
    [size] bytes preceded it.
    Together with the stream's complete reading this DETERMINES the error
    ([expected_err]): size is checked before the hash, an earlier I/O error
    wins over a later mismatch. *)
From Coq Require Import List ZArith NArith Bool Lia.
From BBS Require Import Buffer.Source Buffer.Validate Buffer.StreamProofs Buffer.ValidateProofs.
Import ListNotations.
Open Scope N_scope.

(** The error a consumer must see for a stream whose complete reading is
    [c] followed by [t] (io.EOF = [EEof]), when it is not valid:
    too long => the Source's code (whatever follows); otherwise an I/O error
    is passed through; a clean end (short content or wrong hash) => the
    Source's code. *)
Definition expected_err (cfg : vcfg) (c : bytes) (t : err) : err :=
  if g_size cfg <? lenN c then ECode (g_code cfg)
  else match t with EEof => ECode (g_code cfg) | _ => t end.

Lemma expected_err_too_long cfg c t : g_size cfg < lenN c -> expected_err cfg c t = ECode (g_code cfg).
Proof. intros Hl. unfold expected_err. apply N.ltb_lt in Hl. now rewrite Hl. Qed.
Lemma expected_err_io_first cfg c x : lenN c <= g_size cfg -> expected_err cfg c (ECode x) = ECode x.
Proof. intros Hl. unfold expected_err. apply N.ltb_ge in Hl. now rewrite Hl. Qed.
Lemma expected_err_clean_end cfg c : expected_err cfg c EEof = ECode (g_code cfg).
Proof. unfold expected_err. destruct (g_size cfg <? lenN c); reflexivity. Qed.

Section Vcr2.
  Variable H : bytes -> bytes.
  Variable cfg : vcfg.
  Variable S : Type.
  Variable rd : S -> (bytes * err) * S.
  Variable fuel : nat.

  Notation vrd := (vcr_read H cfg rd fuel).
  Notation valid_stream := (valid_stream H cfg rd).
  Notation cb_ok := (cb_ok H cfg rd).

  Definition too_long (s0 : S) : Prop := exists bs u, pulls rd s0 bs u /\ g_size cfg < lenN bs.
  Definition ends_eof (s0 : S) : Prop := exists bs u, drains rd s0 bs EEof u.

  Definition origin2 (s0 : S) (e : err) : Prop :=
    e = EFuel \/
    (e = ECode (g_code cfg) /\ ~ valid_stream s0 /\ (too_long s0 \/ ends_eof s0)) \/
    (e <> EEof /\ exists bs u', drains rd s0 bs e u' /\ lenN bs <= g_size cfg).

  Lemma origin2_origin s0 e : origin2 s0 e -> origin H cfg rd s0 e.
  Proof.
    intros [->|[(-> & Hnv & _)|(Hne & bs & u' & Hd & _)]]; [left; reflexivity|right; left; auto|].
    right. right. split; [assumption|eauto].
  Qed.

  (** the failure is determined by the stream's complete reading *)
  Lemma origin2_expected s0 e c t uend :
    origin2 s0 e -> e <> EFuel -> drains rd s0 c t uend -> e = expected_err cfg c t.
  Proof.
    intros Ho Hnf Hfull. unfold expected_err.
    destruct Ho as [->|[(-> & Hnv & [(bs & u & Hp & Hl)|(bs & u & Hd)])|(Hne & bs & u' & Hd & Hl)]]; [congruence| | |].
    - destruct (pulls_prefix_drains _ _ _ _ _ _ _ _ Hp Hfull) as (rest & -> & _).
      replace (g_size cfg <? lenN (bs ++ rest)) with true; [reflexivity|].
      symmetry. apply N.ltb_lt. rewrite lenN_app. lia.
    - destruct (drains_det _ _ _ _ _ _ _ _ _ Hd Hfull) as (<- & <- & _).
      destruct (g_size cfg <? lenN bs); reflexivity.
    - destruct (drains_det _ _ _ _ _ _ _ _ _ Hd Hfull) as (<- & <- & _).
      replace (g_size cfg <? lenN bs) with false by (symmetry; apply N.ltb_ge; lia).
      pose proof (drains_not_none _ _ _ _ _ _ Hd). destruct e; congruence.
  Qed.

  Lemma origin2_fuel s0 : origin2 s0 EFuel.
  Proof. left. reflexivity. Qed.
  Lemma origin2_code s0 : ~ valid_stream s0 -> too_long s0 \/ ends_eof s0 -> origin2 s0 (ECode (g_code cfg)).
  Proof. intros Hnv Hw. right. left. auto. Qed.
  Lemma origin2_pass s0 e bs u :
    drains rd s0 bs e u -> e <> EEof -> lenN bs <= g_size cfg -> origin2 s0 e.
  Proof. intros Hd Hne Hl. right. right. eauto. Qed.

  Definition Inv2 (s0 : S) (st : vst S) (out : bytes) : Prop :=
    cb_ok s0 (v_cbs st) /\
    match v_err st with
    | ENone => pulls rd s0 out (v_u st) /\ v_acc st = out /\
               v_rem st + lenN out = g_size cfg /\ (0 < v_rem st \/ out = [])
    | EEof => (exists u, drains rd s0 out EEof u) /\ lenN out = g_size cfg /\ g_hash cfg = H out
    | e => (lenN out < g_size cfg \/ out = []) /\ origin2 s0 e
    end.

  Lemma Inv2_Inv s0 st out : Inv2 s0 st out -> Inv H cfg S rd s0 st out.
  Proof.
    intros [Hc Hi]. split; [exact Hc|]. destruct (v_err st); auto;
      destruct Hi as [Hb Ho]; split; auto using origin2_origin.
  Qed.

  Lemma Inv2_init u0 : Inv2 u0 (vinit cfg u0) [].
  Proof. exact (InvBy_init H cfg S rd origin2 u0). Qed.

  Lemma vcr_read_step2 s0 st out c e st' :
    Inv2 s0 st out -> vrd st = ((c, e), st') ->
    match e with
    | ENone => Inv2 s0 st' (out ++ c)
    | _ => c = [] /\ v_err st' = e /\ Inv2 s0 st' out
    end.
  Proof. exact (vcr_read_step H cfg S rd fuel origin2 origin2_fuel origin2_code origin2_pass s0 st out c e st'). Qed.

  Lemma vcr_pulls2 s0 st out bs st' :
    Inv2 s0 st out -> pulls vrd st bs st' -> Inv2 s0 st' (out ++ bs).
  Proof. exact (vcr_pulls_by H cfg S rd fuel origin2 origin2_fuel origin2_code origin2_pass s0 st out bs st'). Qed.

  Lemma vcr_drains2 s0 st out bs e st' :
    Inv2 s0 st out -> drains vrd st bs e st' -> Inv2 s0 st' (out ++ bs) /\ v_err st' = e.
  Proof. exact (vcr_drains_by H cfg S rd fuel origin2 origin2_fuel origin2_code origin2_pass s0 st out bs e st'). Qed.

  (** any read keeps the invariant (for some received prefix) *)
  Definition InvE (s0 : S) (st : vst S) : Prop := exists out, Inv2 s0 st out.
  Lemma InvE_step s0 st r st' : InvE s0 st -> vrd st = (r, st') -> InvE s0 st'.
  Proof.
    intros (out & Hi) Hr. destruct r as [c e]. pose proof (vcr_read_step2 _ _ _ _ _ _ Hi Hr) as Hs.
    destruct e; [exists (out ++ c); exact Hs|..]; exists out; apply Hs.
  Qed.

  Lemma Inv2_invalid s0 st out :
    Inv2 s0 st out -> ~ valid_stream s0 ->
    (lenN out < g_size cfg \/ out = []) /\ v_err st <> EEof /\
    (v_err st <> ENone -> origin2 s0 (v_err st)).
  Proof.
    intros [_ Hi] Hnv. destruct (v_err st).
    - destruct Hi as (_ & _ & Hl & [Hpos|Hn]); (split; [|split; congruence]); [left; lia|right; assumption].
    - destruct Hi as ((u & Hd) & Hl & Hh). exfalso. apply Hnv. exists out, u. auto.
    - destruct Hi as [Hb Ho]. rsplit; auto. congruence.
    - destruct Hi as [Hb Ho]. rsplit; auto. congruence.
    - destruct Hi as [Hb Ho]. rsplit; auto. congruence.
  Qed.
End Vcr2.
