(** C16N — Done() exactly once to every handler that exists, INDEPENDENTLY of
    the offering rule: every tree (no well-formedness condition on the
    scripts), every method, any fuel.  The same invariant bounds the depth of
    the observed tree by the depth of the input tree, which discharges the
    decoder's depth hypothesis of [dom16N] for trees of depth <= 64.

    [Q n r]: every error-handling reader nested in [r] has not been told Done
    yet, every buffer it has given up was closed with Done = 1 everywhere and
    has depth <= the remaining bound, and so have the replacements still in its
    script.  Any read keeps [Q n] (no stickiness needed), Close() turns it into
    "Done = 1 everywhere".

    The argument does not depend on what a leaf counts: it is given once, for
    any depth functions that satisfy the equations of [tdepth] / [odepth] at
    wrappers and scripts and any condition [lc n] / [lr n] on the plain readers
    within bound [n] that opening at a leaf of depth <= n establishes, reading
    keeps and closing turns into an observed leaf of depth <= n
    (Buffer/EHNestDepth.v uses it a second time). *)
From Coq Require Import List ZArith NArith Bool Lia.
From BBS Require Import Buffer.Source Buffer.Validate Buffer.Convert Buffer.ErrHandler Buffer.EHNest
  Buffer.EHNestStep Buffer.EHNestRules Run.R16N Run.R16NProofs.
Import ListNotations.
Open Scope nat_scope.

Fixpoint tdepth (t : nbuf) : nat :=
  match t with
  | NB _ => 1
  | NW inner ans => S (Nat.max (tdepth inner) (adepth ans))
  end
with adepth (a : nanss) : nat :=
  match a with
  | ANil => 0
  | ARep b r => Nat.max (tdepth b) (adepth r)
  | AFail _ r => adepth r
  end.

Section Depth.
  Variable td : nbuf -> nat.
  Variable ad : nanss -> nat.
  Variable od : otree -> nat.
  Hypothesis td_NW : forall inner ans, td (NW inner ans) = S (Nat.max (td inner) (ad ans)).
  Hypothesis ad_ANil : ad ANil = 0.
  Hypothesis ad_ARep : forall b r, ad (ARep b r) = Nat.max (td b) (ad r).
  Hypothesis ad_AFail : forall c r, ad (AFail c r) = ad r.
  Hypothesis od_ONode : forall offs d kids,
    od (ONode offs d kids) = S (fold_right (fun k m => Nat.max (od k) m) 0 kids).
  Variable lc : nat -> ucr -> Prop.
  Variable lr : nat -> urd -> Prop.
  Hypothesis lc_open : forall ifuel b off n, td (NB b) <= n -> lc n (ucr_open ifuel b off).
  Hypothesis lc_read : forall ifuel max n u x u', lc n u -> ucr_read ifuel max u = (x, u') -> lc n u'.
  Hypothesis lc_close : forall n u, lc n u -> od (OLeaf (sum_nat (ucr_closes (ucr_close u)))) <= n.
  Hypothesis lr_open : forall ifuel b off n, td (NB b) <= n -> lr n (urd_open ifuel b off).
  Hypothesis lr_read : forall ifuel cap n u x u', lr n u -> urd_read ifuel cap u = (x, u') -> lr n u'.
  Hypothesis lr_close : forall n u, lr n u -> od (OLeaf (sum_nat (urd_closes (urd_close u)))) <= n.
  Hypothesis plain_leaf : forall H cfg fuel b m, od (OLeaf (o_closed (plain H cfg fuel b m))) <= td (NB b).

  Definition kids_ok (n : nat) (kids : list otree) : Prop :=
    forallb od1 kids = true /\ Forall (fun o => od o <= n) kids.
  Lemma kids_ok_snoc n kids o : kids_ok n kids -> od1 o = true -> od o <= n -> kids_ok n (kids ++ [o]).
  Proof.
    intros (A & B) C D. split.
    - rewrite forallb_app, A. cbn. rewrite C. reflexivity.
    - apply Forall_app. split; [exact B|repeat constructor; exact D].
  Qed.
  Lemma kids_ok_nil n : kids_ok n [].
  Proof. split; [reflexivity|constructor]. Qed.

  Definition Qc (n : nat) (o : otree) : Prop := od1 o = true /\ od o <= n.

  Lemma node_ok n offs kids : kids_ok n kids -> Qc (S n) (ONode offs 1 kids).
  Proof.
    intros (A & B). split; [cbn [od1]; rewrite A; reflexivity|]. rewrite od_ONode. apply le_n_S.
    clear A. induction B as [|o l Ho Hl IH]; cbn [fold_right]; lia.
  Qed.

  Lemma said_ad a c r : said a c r -> ad r <= ad a.
  Proof. destruct 1; rewrite ?ad_AFail; lia. Qed.

  Definition hQ (n : nat) (h : hnd) : Prop := hn_done h = 0 /\ kids_ok n (hn_dead h) /\ ad (hn_ans h) <= n.

  Lemma hQ_new n ans : ad ans <= n -> hQ n (hn_new ans).
  Proof. intros Ha. split; [reflexivity|]. split; [apply kids_ok_nil|exact Ha]. Qed.
  Lemma hQ_close n h o : hQ n h -> Qc n o -> Qc (S n) (hn_obs (hn_finish h) [o]).
  Proof.
    intros (Hd & Hk & _) (A & B). unfold hn_obs, hn_finish. cbn [hn_off hn_done hn_dead]. rewrite Hd.
    apply node_ok. apply kids_ok_snoc; assumption.
  Qed.
  Lemma hQ_said n h e c rest : hQ n h -> said (hn_ans h) c rest -> hQ n (hn_offered h e rest).
  Proof. intros (Hd & Hk & Ha) Hs. pose proof (said_ad _ _ _ Hs). split; [exact Hd|]. split; [exact Hk|cbn; lia]. Qed.
  Lemma hQ_replaced n h e t rest o :
    hQ n h -> hn_ans h = ARep t rest -> Qc n o -> hQ n (hn_retire (hn_offered h e rest) o) /\ td t <= n.
  Proof.
    intros (Hd & Hk & Ha) E (A & B). rewrite E, ad_ARep in Ha. split; [|lia].
    split; [exact Hd|]. split; [apply kids_ok_snoc; assumption|cbn; lia].
  Qed.

  Fixpoint Q (n : nat) (r : ncr) {struct r} : Prop :=
    match r with
    | CL u => lc n u
    | CE cur _ h => match n with O => False | S n' => hQ n' h /\ Q n' cur end
    end.

  Lemma Q_close : forall r n, Q n r -> Qc n (nobs (nclose r)).
  Proof.
    induction r as [u|cur IH off h]; intros n Hq; cbn [Q nclose nobs] in *.
    - split; [reflexivity|apply lc_close; exact Hq].
    - destruct n as [|n]; [contradiction|]. destruct Hq as (Hh & Hc). exact (hQ_close _ _ _ Hh (IH _ Hc)).
  Qed.

  Lemma nopen_Q ifuel : forall t n off, td t <= n -> Q n (nopen ifuel t off).
  Proof.
    induction t as [b|inner IH ans]; intros n off Hn; cbn [nopen Q].
    - apply lc_open. exact Hn.
    - rewrite td_NW in Hn. destruct n as [|n]; [lia|]. split; [apply hQ_new; lia|apply IH; lia].
  Qed.

  Lemma nstep_Q ifuel max f r x r' : nstep ifuel max f r x r' -> forall n, Q n r -> Q n r'.
  Proof.
    induction 1 as [r|f u x u' Hu|f cur off h chunk cur' _ IH|f cur off h chunk cur' _ IH
                    |f cur off h chunk e cur' c rest _ IH He Hs|f cur off h chunk e cur' t rest x r' _ IH He Ha _ IH2];
      intros n Hq; cbn [Q] in *; auto; try (eapply lc_read; eassumption);
      (destruct n as [|n]; [contradiction|]); destruct Hq as (Hh & Hc).
    - split; auto.
    - split; auto.
    - split; [eapply hQ_said; eassumption|auto].
    - destruct (hQ_replaced _ _ e _ _ _ Hh Ha (Q_close _ _ (IH _ Hc))) as (Hh' & Ht).
      apply (IH2 (S n)). split; [exact Hh'|apply nopen_Q; exact Ht].
  Qed.

  Fixpoint QR (n : nat) (r : nrd) {struct r} : Prop :=
    match r with
    | RL u => lr n u
    | RE cur _ h => match n with O => False | S n' => hQ n' h /\ QR n' cur end
    end.

  Lemma QR_close : forall r n, QR n r -> Qc n (nrobs (nrclose r)).
  Proof.
    induction r as [u|cur IH off h]; intros n Hq; cbn [QR nrclose nrobs] in *.
    - split; [reflexivity|apply lr_close; exact Hq].
    - destruct n as [|n]; [contradiction|]. destruct Hq as (Hh & Hc). exact (hQ_close _ _ _ Hh (IH _ Hc)).
  Qed.

  Lemma nropen_QR ifuel : forall t n off, td t <= n -> QR n (nropen ifuel t off).
  Proof.
    induction t as [b|inner IH ans]; intros n off Hn; cbn [nropen QR].
    - apply lr_open. exact Hn.
    - rewrite td_NW in Hn. destruct n as [|n]; [lia|]. split; [apply hQ_new; lia|apply IH; lia].
  Qed.

  Lemma rstep_QR ifuel cap r x r' : rstep ifuel cap r x r' -> forall n, QR n r -> QR n r'.
  Proof.
    induction 1 as [u x u' Hu|cur off h data e cur' _ IH _|cur off h data e cur' c rest _ IH He Hs
                    |cur off h data e cur' t rest _ IH He Ha];
      intros n Hq; cbn [QR] in *; try (eapply lr_read; eassumption);
      (destruct n as [|n]; [contradiction|]); destruct Hq as (Hh & Hc).
    - split; auto.
    - split; [eapply hQ_said; eassumption|auto].
    - destruct (hQ_replaced _ _ e _ _ _ Hh Ha (QR_close _ _ (IH _ Hc))) as (Hh' & Ht).
      split; [exact Hh'|apply nropen_QR; exact Ht].
  Qed.

  Section Methods.
    Variable H : bytes -> bytes.
    Variable cfg : vcfg.
    Variable fuel : nat.

    Lemma Qc_mono n n' o : Qc n o -> n <= n' -> Qc n' o.
    Proof. intros (A & B) Hn. split; [exact A|lia]. Qed.

    Lemma discard_Qc : forall t, Qc (td t) (discard_tree H cfg fuel t).
    Proof.
      induction t as [b|inner IH ans]; cbn [discard_tree].
      - split; [reflexivity|apply plain_leaf].
      - rewrite td_NW. apply hQ_close; [apply hQ_new; apply Nat.le_max_r|]. exact (Qc_mono _ _ _ IH (Nat.le_max_l _ _)).
    Qed.

    Lemma whole_Qc m : forall t, Qc (td t) (snd (whole H cfg fuel m t)).
    Proof.
      pose (Pt := fun ans (r : wres) (_ : list err) dead (_ : list bool) (w' : wres) => forall n,
                    ad ans <= n -> Qc n (snd r) -> kids_ok n dead -> Qc (S n) (snd w')).
      assert (Hnode : forall n offs dead o, Qc n o -> kids_ok n dead -> Qc (S n) (ONode offs 1 (dead ++ [o])))
        by (intros n offs dead o (Ho1 & Ho2) Hk; apply node_ok, kids_ok_snoc; assumption).
      destruct (whole_try_ind H cfg fuel m (fun t w => Qc (td t) (snd w)) Pt) as (A & _); unfold Pt; cbn [snd].
      - intros b. split; [reflexivity|apply plain_leaf].
      - intros inner ans w w' Hi Ha. rewrite td_NW.
        apply Ha; [apply Nat.le_max_r|exact (Qc_mono _ _ _ Hi (Nat.le_max_l _ _))|apply kids_ok_nil].
      - intros ans d e cb o offers dead cbs _ n _. apply Hnode.
      - intros ans c rest d e cb o offers dead cbs _ _ n _. apply Hnode.
      - intros t rest d e cb o offers dead cbs w w' _ Ht Hrest n Ha (Ho1 & Ho2) Hk. rewrite ad_ARep in Ha.
        apply Hrest; [lia|apply (Qc_mono _ _ _ Ht); lia|apply kids_ok_snoc; assumption].
      - exact A.
    Qed.

    Theorem run_tree_Qc t m : Qc (td t) (z_tree (run_tree H cfg fuel t m)).
    Proof.
      destruct t as [b|inner ans]; [split; [reflexivity|apply plain_leaf]|].
      set (n := td (NW inner ans)).
      apply run_tree_observed with (P := fun _ => Qc n) (Lc := fun _ => Q n) (Lr := QR n).
      - intros m'. apply whole_Qc.
      - apply discard_Qc.
      - apply discard_Qc.
      - intros _. apply nopen_Q. apply le_n.
      - intros max r c e r' Hq Hr. pose proof (nstep_Q _ _ _ _ _ _ (nread_nstep _ _ _ _ _ _ Hr) _ Hq) as Hq'.
        split; [auto|apply Q_close; exact Hq'].
      - intros _ r. apply Q_close.
      - apply nropen_QR. apply le_n.
      - intros cap r c e r' Hq Hr. pose proof (rstep_QR _ _ _ _ _ (nrread_rstep _ _ _ _ _ Hr) _ Hq) as Hq'.
        split; [auto|apply QR_close; exact Hq'].
      - intros r. apply QR_close.
    Qed.
  End Methods.
End Depth.

Theorem run_tree_done_once H cfg fuel t m :
  od1 (z_tree (run_tree H cfg fuel t m)) = true /\ odepth (z_tree (run_tree H cfg fuel t m)) <= tdepth t.
Proof.
  apply (run_tree_Qc tdepth adepth odepth) with (lc := fun n _ => 1 <= n) (lr := fun n _ => 1 <= n);
    try reflexivity; auto.
Qed.
