(** C16 (fuel) — progress laws for the readers of the error-handling buffer.

    The cost of a buffer script is [bcost b] (4 + the C09 measure of its
    script, 4 + the length of a byte slice, 1 for an error buffer; [buf_fuel b
    = 4 * bcost b]), the cost of an answer is the cost of its replacement (1
    for an error answer), the cost of the active levels of a stack is the sum
    over all answers they have left.  The measure of a nested
    errorHandlingChunkReader / errorHandlingReader is the measure of the plain
    reader in use plus the cost of the active levels: a read that hands out
    data decreases the first, a replacement moves the cost of its answer
    (strictly more than the measure of the freshly opened reader) out of the
    second.  So the readers satisfy the progress laws of C09FuelLoops.v and
    every loop above them returns something other than [EFuel] as soon as the
    fuel exceeds the measure; and no error offered to a handler is [EFuel]
    ([Wok]: no [HOnError EFuel] in any log). *)
From Coq Require Import List ZArith NArith Bool Lia.
From BBS Require Import Buffer.Source Buffer.Convert Buffer.ErrHandler Buffer.ValidateProofs
  Buffer.C09FuelLoops Buffer.ErrHandlerProofs.
From BBS Require Buffer.PreserveProofs.
Import ListNotations.
Open Scope nat_scope.

Definition bcost (b : bufscript) : nat :=
  match b with
  | BChunk e | BReader e _ => 4 + measure e
  | BBytes d => 4 + length d
  | BError _ => 1
  end.
Definition acost (a : answer) : nat := match a with Replace b => bcost b | Fail _ => 1 end.
Definition anscost (ans : list answer) : nat := fold_right (fun a n => acost a + n) 0 ans.
Definition actcost (act : list hst) : nat := fold_right (fun h n => anscost (h_answers h) + n) 0 act.

Lemma bcost_pos b : 1 <= bcost b.
Proof. destruct b; cbn [bcost]; lia. Qed.
Lemma acost_pos a : 1 <= acost a.
Proof. destruct a; cbn [acost]; [apply bcost_pos|lia]. Qed.
Lemma anscost_cons a r : anscost (a :: r) = acost a + anscost r.
Proof. reflexivity. Qed.
Lemma actcost_cons h r : actcost (h :: r) = anscost (h_answers h) + actcost r.
Proof. reflexivity. Qed.
Lemma actcost_app a b : actcost (a ++ b) = actcost a + actcost b.
Proof. induction a as [|h r IH]; cbn [app]; rewrite ?actcost_cons; [reflexivity|]. rewrite IH. lia. Qed.
Lemma anscost_length ans : length ans <= anscost ans.
Proof. induction ans as [|a r IH]; [cbn; lia|]. rewrite anscost_cons. pose proof (acost_pos a). cbn [length]. lia. Qed.

(** number of answers left (the retry counters of the model) *)
Definition ansleft (act : list hst) : nat := fold_right (fun h n => length (h_answers h) + n) 0 act.
Lemma ansleft_cons h r : ansleft (h :: r) = length (h_answers h) + ansleft r.
Proof. reflexivity. Qed.

Definition clean (h : hst) : Prop := ~ In (HOnError EFuel) (h_log h).
Definition Wok (w : world) : Prop := Forall clean (w_dn w ++ w_act w).

Lemma clean_done h : clean h -> clean (done h).
Proof.
  unfold clean, done. cbn [h_log]. intros Hc Hin. apply in_app_or in Hin.
  destruct Hin as [Hin|[Hin|[]]]; [auto|discriminate].
Qed.
Lemma clean_map_done hs : Forall clean hs -> Forall clean (map done hs).
Proof. intros Hf. rewrite Forall_map. eapply Forall_impl; [|exact Hf]. intros h. apply clean_done. Qed.

Lemma on_error_fuel h e a h' : on_error h e = (a, h') -> e <> EFuel -> clean h ->
  clean h' /\
  match a with
  | Replace b => bcost b + anscost (h_answers h') <= anscost (h_answers h) /\
                 S (length (h_answers h')) <= length (h_answers h)
  | Fail _ => anscost (h_answers h') <= anscost (h_answers h) /\ length (h_answers h') <= length (h_answers h)
  end.
Proof.
  unfold on_error, clean. intros Ho He Hc.
  assert (Hl : forall l, l = h_log h ++ [HOnError e] -> ~ In (HOnError EFuel) l).
  { intros l -> Hin. apply in_app_or in Hin. destruct Hin as [Hin|[Hin|[]]]; [auto|]. inv Hin. congruence. }
  destruct (h_answers h) as [|a0 r] eqn:Ea; inv Ho; cbn [h_log h_answers].
  - split; [apply Hl; reflexivity|]. cbn. lia.
  - split; [apply Hl; reflexivity|]. rewrite anscost_cons. cbn [length].
    destruct a as [b|c]; cbn [acost]; lia.
Qed.

Lemma escalate_fuel : forall act e ob e' passed act',
  escalate e act = ((ob, e'), passed, act') -> e <> EFuel -> Forall clean act ->
  e' <> EFuel /\ (e' = e \/ exists c, e' = ECode c) /\ Forall clean passed /\ Forall clean act' /\
  match ob with
  | Some b => bcost b + actcost act' <= actcost act /\ S (ansleft act') <= ansleft act
  | None => act' = [] /\ actcost passed <= actcost act /\ ansleft passed <= ansleft act
  end.
Proof.
  induction act as [|h rest IH]; intros e ob e' passed act' He Hne Hcl; cbn [escalate] in He.
  - inv He. rsplit; auto; cbn; lia.
  - inversion Hcl as [|x l Hh Hrest]; subst.
    destruct (on_error h e) as [a h'] eqn:Ho.
    destruct (on_error_fuel _ _ _ _ Ho Hne Hh) as (Hc' & Hcost).
    destruct a as [b|c].
    + inv He. rewrite !actcost_cons, !ansleft_cons. rsplit; auto; try lia; try (constructor; assumption).
    + destruct (escalate (ECode c) rest) as [[r p] a'] eqn:Hr. inv He.
      destruct (IH _ _ _ _ _ Hr ltac:(congruence) Hrest) as (A & B & C & D & E).
      assert (B' : e' = e \/ (exists c0 : Z, e' = ECode c0)) by (right; destruct B as [->|[c' ->]]; eauto).
      assert (C' : Forall clean (h' :: p)) by (constructor; assumption).
      destruct ob as [b|].
      * rewrite actcost_cons, ansleft_cons. rsplit; auto; lia.
      * destruct E as (-> & E1 & E2). rewrite !actcost_cons, !ansleft_cons. rsplit; auto; lia.
Qed.

Notation ctrue := (fun _ : csrc => True).
Notation cmeas := (fun s : csrc => measure (c_rest s)).
Notation rtrue := (fun _ : rsrc => True).
Notation rmeas := (fun s : rsrc => measure (r_rest s)).

Definition Iucr (fuel : nat) (u : ucr) : Prop :=
  match u with
  | UNorm n => Io ctrue (n_u n) /\ muo cmeas (n_u n) < fuel
  | URb r => Irb rtrue rmeas fuel r
  | UBs _ => True
  | UErr e | UFail e _ => e <> ENone /\ e <> EFuel
  end.
Definition mucr (u : ucr) : nat :=
  match u with
  | UNorm n => mun (muo cmeas) n
  | URb r => murb rmeas r
  | UBs d => length d
  | UErr _ | UFail _ _ => 0
  end.

Lemma csrc_close_inv s : ctrue s -> ctrue (csrc_close s) /\ cmeas (csrc_close s) <= cmeas s.
Proof. intros _. cbn. auto. Qed.

Lemma ucr_read_prog fuel max : (1 <= max)%N -> cprog (fun _ => 0) (ucr_read fuel max) (Iucr fuel) mucr.
Proof.
  intros Hmax u c e u' Hi Hr. destruct u as [n|r|d|x|x s]; cbn [ucr_read Iucr mucr] in *.
  - destruct (norm_read (offset_read csrc_read) fuel max n) as [res n'] eqn:Hn. inv Hr.
    exact (norm_read_prog _ _ _ (offset_read_prog _ _ _ csrc_read_prog) fuel max Hmax n c e n' Hi Hn).
  - destruct (rb_read rsrc_read fuel max r) as [res r'] eqn:Hn. inv Hr.
    exact (rb_read_prog _ _ _ rsrc_read_prog fuel max Hmax r c e r' Hi Hn).
  - destruct (bs_read max d) as [res d'] eqn:Hn. inv Hr.
    exact (bs_read_prog max Hmax d c e d' I Hn).
  - inv Hr. cbn [Iucr mucr]. destruct Hi. rsplit; auto. congruence.
  - inv Hr. cbn [Iucr mucr]. destruct Hi. rsplit; auto. congruence.
Qed.

Lemma ucr_open_fuel fuel b off : bcost b <= fuel ->
  Iucr fuel (ucr_open fuel b off) /\ S (mucr (ucr_open fuel b off)) <= bcost b.
Proof.
  intros Hf. destruct b as [evs|evs at_|d|c]; cbn [ucr_open bcost] in *.
  - destruct (offset_init_fuel csrc_read csrc_close ctrue cmeas csrc_read_prog csrc_close_inv
                fuel (Z.of_N off) (mkCsrc evs 0) I ltac:(cbn [c_rest]; lia)) as [A B].
    cbn [c_rest] in B. cbn [Iucr mucr n_u]. unfold mun. cbn [n_u n_last length]. rsplit; auto; lia.
  - destruct (discard_from_reader rsrc_read fuel (Z.of_N off) (mkRsrc evs at_ 0)) as [e s] eqn:Hd.
    assert (Hm0 : rmeas (mkRsrc evs at_ 0) < fuel) by (cbn [r_rest]; lia).
    destruct (discard_from_reader_fuel _ _ _ rsrc_read_prog fuel _ _ _ _ I Hm0 Hd) as (A & _ & C).
    cbn [r_rest] in C.
    destruct e; cbn [Iucr mucr]; unfold Irb, murb; cbn [rb_u rb_err is_none]; rsplit; auto; try congruence; lia.
  - destruct (off <=? lenN d)%N; cbn [Iucr mucr]; [|rsplit; auto; try congruence; lia].
    pose proof (len_dropN_le off d). rsplit; auto; lia.
  - cbn. rsplit; auto; try congruence.
Qed.

Lemma ucr_close_fuel fuel u : Iucr fuel u -> Iucr fuel (ucr_close u) /\ mucr (ucr_close u) <= mucr u.
Proof.
  destruct u as [n|r|d|x|x s]; cbn [ucr_close Iucr mucr]; auto.
  - intros (Hi & Hm). unfold norm_close, mun. cbn [n_u n_last].
    destruct (offset_close_inv csrc_close ctrue cmeas csrc_close_inv (n_u n) Hi) as [A B].
    rsplit; auto; lia.
Qed.

Definition Isch (fuel : nat) (r : sch) : Prop :=
  Iucr fuel (sc_cur r) /\ mucr (sc_cur r) + actcost (w_act (sc_w r)) < fuel /\ Wok (sc_w r).
Definition musch (r : sch) : nat := mucr (sc_cur r) + actcost (w_act (sc_w r)).

Lemma Wok_split w : Wok w -> Forall clean (w_dn w) /\ Forall clean (w_act w).
Proof. unfold Wok. intros Hw. apply Forall_app in Hw. exact Hw. Qed.

Lemma Wok_after_replace w passed act' c :
  Forall clean (w_dn w) -> Forall clean passed -> Forall clean act' -> Wok (after_replace w passed act' c).
Proof.
  intros A B C. unfold Wok, after_replace. cbn [w_dn w_act].
  apply Forall_app. split; [apply Forall_app; split; [exact A|apply clean_map_done; exact B]|exact C].
Qed.
Lemma Wok_after_failure w passed : Forall clean (w_dn w) -> Forall clean passed -> Wok (after_failure w passed).
Proof. intros A B. unfold Wok, after_failure. cbn [w_dn w_act]. apply Forall_app. auto. Qed.
Lemma Wok_all_done w : Wok w -> Wok (all_done w).
Proof.
  intros Hw. destruct (Wok_split _ Hw) as [A B]. unfold Wok, all_done. cbn [w_dn w_act]. rewrite app_nil_r.
  apply Forall_app. split; [exact A|apply clean_map_done; exact B].
Qed.
Lemma Wok_retire w c : Wok w -> Wok (retire w c).
Proof. unfold Wok, retire. cbn [w_dn w_act]. auto. Qed.

Lemma sch_read_fuel fuel max : (1 <= max)%N -> forall f r c e r',
  Isch fuel r -> musch r < f -> sch_read fuel f max r = ((c, e), r') ->
  e <> EFuel /\ Isch fuel r' /\ musch r' <= musch r /\ (e = ENone -> musch r' < musch r).
Proof.
  intros Hmax. induction f as [|f IH]; intros r c e r' Hi Hm Hr; [lia|].
  destruct Hi as (Hu & Hlt & Hw). unfold musch in *.
  destruct (ucr_read fuel max (sc_cur r)) as [[chunk e1] cur'] eqn:Hu1.
  destruct (ucr_read_prog fuel max Hmax _ _ _ _ Hu Hu1) as (A & B & C & D).
  destruct (Wok_split _ Hw) as [Hdn Hact]. destruct (op_done e1) eqn:Hop.
  - cbn [sch_read] in Hr. rewrite Hu1 in Hr. unfold Isch.
    destruct e1; try discriminate Hop; inv Hr; cbn [sc_cur sc_w]; rsplit; auto; try congruence; try lia.
    specialize (D eq_refl). lia.
  - rewrite (sch_read_io _ _ _ _ _ _ _ Hu1 Hop) in Hr.
    destruct (escalate e1 (w_act (sc_w r))) as [[[ob e'] passed] act'] eqn:He.
    destruct (escalate_fuel _ _ _ _ _ _ He A Hact) as (E1 & E2 & E3 & E4 & E5).
    destruct ob as [b|].
    + destruct E5 as (E5 & _).
      destruct (ucr_open_fuel fuel b (sc_off r) ltac:(lia)) as [O1 O2].
      apply IH in Hr.
      * unfold musch in Hr. cbn [sc_cur sc_w sc_off after_replace w_act] in Hr.
        destruct Hr as (R1 & R2 & R3 & R4). split; [exact R1|]. split; [exact R2|]. split; [lia|].
        intros X. specialize (R4 X). lia.
      * unfold Isch. cbn [sc_cur sc_w sc_off after_replace w_act].
        split; [exact O1|]. split; [lia|]. apply Wok_after_replace; assumption.
      * unfold musch. cbn [sc_cur sc_w sc_off after_replace w_act]. lia.
    + destruct E5 as (-> & E5 & _). inv Hr. unfold Isch. cbn [sc_cur sc_w after_failure w_act].
      rsplit; auto; try lia.
      * apply Wok_after_failure; assumption.
      * intros ->. destruct E2 as [<-|[c0 E2]]; discriminate.
Qed.

Lemma sch_read_prog fuel max : (1 <= max)%N -> cprog (fun _ => 0) (sch_read fuel fuel max) (Isch fuel) musch.
Proof.
  intros Hmax r c e r' Hi Hr. pose proof Hi as (_ & Hlt & _).
  destruct (sch_read_fuel fuel max Hmax fuel r c e r' Hi Hlt Hr) as (A & B & C & D).
  rsplit; auto. intros X. specialize (D X). lia.
Qed.

Lemma sch_close_fuel fuel r : Isch fuel r -> Isch fuel (sch_close r) /\ musch (sch_close r) <= musch r.
Proof.
  intros (Hu & Hlt & Hw). unfold Isch, musch, sch_close. cbn [sc_cur sc_w retire all_done w_act actcost fold_right].
  destruct (ucr_close_fuel fuel _ Hu) as [A B]. rsplit; auto; try lia.
  apply Wok_retire, Wok_all_done. exact Hw.
Qed.

Lemma sch_init_fuel fuel b w : 4 * (bcost b + actcost (w_act w)) <= fuel -> Wok w ->
  Isch fuel (sch_init fuel b w) /\ 2 + 2 * musch (sch_init fuel b w) <= fuel.
Proof.
  intros Hf Hw. pose proof (bcost_pos b). destruct (ucr_open_fuel fuel b 0%N ltac:(lia)) as [A B].
  unfold Isch, musch, sch_init. cbn [sc_cur sc_w]. rsplit; auto; lia.
Qed.

Definition Iurd (fuel : nat) (u : urd) : Prop :=
  match u with
  | RCb c => Io ctrue (cb_u c) /\ muo cmeas (cb_u c) < fuel
  | RRaw _ | RBb _ => True
  | RErr e | RFail e _ => e <> ENone /\ e <> EFuel
  end.
Definition murd (u : urd) : nat :=
  match u with
  | RCb c => mucb (muo cmeas) c
  | RRaw s => rmeas s
  | RBb d => length d
  | RErr _ | RFail _ _ => 0
  end.

Lemma urd_read_prog fuel : rprog (urd_read fuel) (Iurd fuel) murd.
Proof.
  intros cap u c e u' Hi Hr. destruct u as [cb|s|d|x|x s]; cbn [urd_read Iurd murd] in *.
  - destruct (cb_read (offset_read csrc_read) fuel cap cb) as [res cb'] eqn:Hn. inv Hr.
    exact (cb_read_prog _ _ _ (offset_read_prog _ _ _ csrc_read_prog) fuel cap cb c e cb' Hi Hn).
  - destruct (rsrc_read cap s) as [res s'] eqn:Hn. inv Hr.
    exact (rsrc_read_prog cap s c e s' I Hn).
  - destruct (bb_read cap d) as [res d'] eqn:Hn. inv Hr.
    exact (bb_read_prog cap d c e d' I Hn).
  - inv Hr. cbn [Iurd murd]. destruct Hi. rsplit; auto. intros _ [X|X]; congruence.
  - inv Hr. cbn [Iurd murd]. destruct Hi. rsplit; auto. intros _ [X|X]; congruence.
Qed.

Lemma urd_open_fuel fuel b off : bcost b <= fuel ->
  Iurd fuel (urd_open fuel b off) /\ S (murd (urd_open fuel b off)) <= bcost b.
Proof.
  intros Hf. destruct b as [evs|evs at_|d|c]; cbn [urd_open bcost] in *.
  - destruct (offset_init_fuel csrc_read csrc_close ctrue cmeas csrc_read_prog csrc_close_inv
                fuel (Z.of_N off) (mkCsrc evs 0) I ltac:(cbn [c_rest]; lia)) as [A B].
    cbn [c_rest] in B. cbn [Iurd murd cb_u]. unfold mucb. cbn [cb_u cb_last length]. rsplit; auto; lia.
  - destruct (discard_from_reader rsrc_read fuel (Z.of_N off) (mkRsrc evs at_ 0)) as [e s] eqn:Hd.
    assert (Hm0 : rmeas (mkRsrc evs at_ 0) < fuel) by (cbn [r_rest]; lia).
    destruct (discard_from_reader_fuel _ _ _ rsrc_read_prog fuel _ _ _ _ I Hm0 Hd) as (A & _ & C).
    cbn [r_rest] in C.
    destruct e; cbn [Iurd murd rsrc_close r_rest]; rsplit; auto; try congruence; lia.
  - destruct (off <=? lenN d)%N; cbn [Iurd murd]; [|rsplit; auto; try congruence; lia].
    pose proof (len_dropN_le off d). rsplit; auto; lia.
  - cbn. rsplit; auto; try congruence.
Qed.

Lemma urd_close_fuel fuel u : Iurd fuel u -> Iurd fuel (urd_close u) /\ murd (urd_close u) <= murd u.
Proof.
  destruct u as [c|s|d|x|x s]; cbn [urd_close Iurd murd]; auto.
  intros (Hi & Hm). unfold cb_close, mucb. cbn [cb_u cb_last].
  destruct (offset_close_inv csrc_close ctrue cmeas csrc_close_inv (cb_u c) Hi) as [A B].
  rsplit; auto; lia.
Qed.

Definition Ishr (fuel : nat) (r : shr) : Prop :=
  Iurd fuel (sr_cur r) /\ murd (sr_cur r) + actcost (w_act (sr_w r)) < fuel /\ Wok (sr_w r).
Definition mushr (r : shr) : nat := murd (sr_cur r) + actcost (w_act (sr_w r)).

Lemma shr_read_prog fuel : rprog (shr_read fuel) (Ishr fuel) mushr.
Proof.
  intros cap r c e r' (Hu & Hlt & Hw) Hr. unfold mushr, Ishr.
  destruct (urd_read fuel cap (sr_cur r)) as [[data e1] cur'] eqn:Hu1.
  destruct (urd_read_prog fuel _ _ _ _ _ Hu Hu1) as (A & B & C & D).
  destruct (Wok_split _ Hw) as [Hdn Hact]. destruct (op_done e1) eqn:Hop.
  - rewrite (shr_read_done _ _ _ _ _ _ Hu1 Hop) in Hr. inv Hr. cbn [sr_cur sr_w]. rsplit; auto; try lia.
    intros Hc X. specialize (D Hc X). lia.
  - rewrite (shr_read_io _ _ _ _ _ _ Hu1 Hop) in Hr.
    destruct (escalate e1 (w_act (sr_w r))) as [[[ob e'] passed] act'] eqn:He.
    destruct (escalate_fuel _ _ _ _ _ _ He A Hact) as (E1 & E2 & E3 & E4 & E5).
    destruct ob as [b|].
    + destruct E5 as (E5 & _).
      destruct (urd_open_fuel fuel b (sr_off r + lenN data)%N ltac:(lia)) as [O1 O2].
      inv Hr. cbn [sr_cur sr_w after_replace w_act].
      rsplit; auto; try congruence; try lia. apply Wok_after_replace; assumption.
    + destruct E5 as (-> & E5 & _). inv Hr. cbn [sr_cur sr_w after_failure w_act].
      rsplit; auto; try lia.
      * apply Wok_after_failure; assumption.
      * intros Hc [X|X].
        -- subst e. destruct E2 as [<-|[c0 E2]]; discriminate.
        -- specialize (D Hc (or_intror X)). lia.
Qed.

Lemma shr_close_fuel fuel r : Ishr fuel r -> Ishr fuel (shr_close r) /\ mushr (shr_close r) <= mushr r.
Proof.
  intros (Hu & Hlt & Hw). unfold Ishr, mushr, shr_close. cbn [sr_cur sr_w retire all_done w_act actcost fold_right].
  destruct (urd_close_fuel fuel _ Hu) as [A B]. rsplit; auto; try lia.
  apply Wok_retire, Wok_all_done. exact Hw.
Qed.

Lemma shr_init_fuel fuel b w : 4 * (bcost b + actcost (w_act w)) <= fuel -> Wok w ->
  Ishr fuel (shr_init fuel b w) /\ 2 + 2 * mushr (shr_init fuel b w) <= fuel.
Proof.
  intros Hf Hw. pose proof (bcost_pos b). destruct (urd_open_fuel fuel b 0%N ltac:(lia)) as [A B].
  unfold Ishr, mushr, shr_init. cbn [sr_cur sr_w]. rsplit; auto; lia.
Qed.

(** the offset reader over a chunk reader of any weight, its own chunks
    weighing 0: the part of the straddling chunk that is kept counts 1 *)
Section Offset0.
  Context {St : Type}.
  Variable wt : bytes -> nat.
  Variable rd : St -> (bytes * err) * St.
  Variable cl : St -> St.
  Variable I : St -> Prop.
  Variable mu : St -> nat.
  Hypothesis P : cprog wt rd I mu.
  Hypothesis Hcl : forall s, I s -> I (cl s) /\ mu (cl s) <= mu s.

  Definition pf0 (p : bytes) : nat := if is_nil p then 0 else 1.
  Definition muo0 (o : ost St) : nat := mu (o_u o) + pf0 (o_prefix o).

  Lemma discard_cr_fuel0 : forall fuel off s p e s', I s -> mu s < fuel ->
    discard_from_chunk_reader rd fuel off s = ((p, e), s') ->
    e <> EFuel /\ I s' /\ mu s' + pf0 p <= mu s.
  Proof. exact (discard_cr_w rd I mu _ (fun _ _ => le_n 0) (cprog_weak _ _ _ _ P)). Qed.

  Lemma offset_init_fuel0 fuel off s : I s -> mu s < fuel ->
    Io I (offset_init rd cl fuel off s) /\ muo0 (offset_init rd cl fuel off s) <= mu s.
  Proof. exact (offset_init_w rd cl I mu _ (fun _ _ => le_n 0) (cprog_weak _ _ _ _ P) Hcl fuel off s). Qed.

  Lemma offset_read_prog0 : cprog (fun _ => 0) (offset_read rd) (Io I) muo0.
  Proof. exact (offset_read_w rd I mu _ (cprog_weak _ _ _ _ P)). Qed.

  Lemma offset_close_inv0 o : Io I o -> Io I (offset_close cl o) /\ muo0 (offset_close cl o) <= muo0 o.
  Proof. exact (offset_close_w cl I mu (fun _ => 0) Hcl o). Qed.
End Offset0.

Lemma extra_reads_inv {St} wt (rd : St -> (bytes * err) * St) I mu : cprog wt rd I mu ->
  forall k s ex s', I s -> extra_reads rd k s = (ex, s') -> I s'.
Proof.
  intros P k s ex s' Hi He. refine (PreserveProofs.extra_reads_pres _ rd I _ k s ex s' He Hi).
  intros s0 [c e] s1 Hr Hi0. exact (proj1 (proj2 (P _ _ _ _ Hi0 Hr))).
Qed.
Lemma rextra_inv {St} (rd : N -> St -> (bytes * err) * St) I mu : rprog rd I mu ->
  forall k cap s ex s', I s -> rextra rd k cap s = (ex, s') -> I s'.
Proof.
  intros P k cap s ex s' Hi He. refine (PreserveProofs.rextra_pres _ rd I _ k cap s ex s' He Hi).
  intros cap0 s0 [c e] s1 Hr Hi0. exact (proj1 (proj2 (P _ _ _ _ _ Hi0 Hr))).
Qed.
