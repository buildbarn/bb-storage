(** C15, model M2: the monitor [mon15_prog] is silent on the model's own
    output [run15_prog], for every input.  On the way: every successful
    method of every well-formed object returns the bytes the Buffer interface
    promises ([eval_spec]), and no handle derived from a buffer with a failed
    task without an error handler or CloneCopy in between reports [Ok]. *)
From BBS Require Import Common.Sx Buffer.Algebra Buffer.AlgebraProofs Buffer.AlgebraTask.
From BBS Require Import Buffer.MuxSeqMon Run.R15.
From Coq Require Import Arith Lia.

Section Spec.
  Variable D : list Z.
  Variable flt : fault.
  Notation eval := (eval D flt).

  Definition expected (m : meth) : list Z :=
    match m with
    | MSize => [Z.of_nat (length D)]
    | MWriter | MReader | MProto _ | MSlice _ => D
    | MChunks off => skipn off D
    | MReadAt len off => firstn len (skipn off D)
    | MDiscard => []
    end.

  Definition spec_ok (m : meth) (r : res) : Prop :=
    match r with
    | Ok b => b = expected m
    | Eof b => exists len off, m = MReadAt len off /\ b = firstn len (skipn off D) /\
                               (length (skipn off D) < len)%nat
    | _ => True
    end.

  Lemma spec_readat len off : spec_ok (MReadAt len off) (readat_pure D len off).
  Proof.
    unfold readat_pure. destruct (Nat.ltb (length (skipn off D)) len) eqn:E; cbn.
    - apply Nat.ltb_lt in E. exists len, off. split; [reflexivity|]. split; [|exact E].
      symmetry. apply firstn_all2. lia.
    - reflexivity.
  Qed.

  Lemma spec_ok_bytes m : spec_ok m (bytes D m).
  Proof. destruct m; cbn [bytes]; try reflexivity. apply spec_readat. Qed.

  Theorem eval_spec n : wf D n -> forall m, spec_ok m (eval n m).
  Proof.
    intros Hw m. pose proof (proj1 (eval_outcome D flt n) m) as H. pose proof (spec_ok_bytes m) as S.
    destruct (eval n m) eqn:E; try exact I.
    - destruct H as [-> | H]; [|rewrite H; exact S].
      (* only the size depends on well-formedness *)
      destruct (size_preserved D flt n Hw) as [[c ->]|E']; [discriminate E|].
      rewrite E' in E. injection E as <-. reflexivity.
    - rewrite H. exact S.
  Qed.
End Spec.

Inductive opc :=
| OStream (side : Z) (sm : sx) | OCopy (side max : Z) (sm : sx)
| OTask (terr : Z) | OEH (h : Z) | ONone.

Definition cls (op : sx) : opc :=
  match op with
  | L [A 0; A side; sm] => OStream side sm
  | L [A 1; A side; A max; sm] => OCopy side max sm
  | L [A 2; A terr] => OTask terr
  | L [A 3; A h] => OEH h
  | _ => ONone
  end.

Definition apply_op (p : prog) (i : nat) (o : opc) : prog :=
  match o with
  | OStream side sm => if Z.eqb side 0 then CloneStreamL p (dec_meth sm) else CloneStreamR p (dec_meth sm)
  | OCopy side max sm =>
      if Z.eqb side 0 then CloneCopyL p (Z.to_nat max) (dec_meth sm)
      else CloneCopyR p (Z.to_nat max) (dec_meth sm)
  | OTask terr => WithTask p i terr
  | OEH h => WithEH p h
  | ONone => p
  end.

Definition op_handle (i : nat) (o : opc) : list (nat * meth) :=
  match o with
  | OStream _ sm | OCopy _ _ sm => [(i, dec_meth sm)]
  | _ => []
  end.

Definition okop (o : sx) : bool :=
  match o with L (A 3 :: _) | L (A 1 :: _) => false | _ => true end.

Ltac crush_match :=
  repeat match goal with
         | |- context [match ?x with _ => _ end] => is_var x; destruct x; try reflexivity
         end.

Lemma dec_ops_cons p i op rest :
  dec_ops p i (op :: rest) = dec_ops (apply_op p i (cls op)) (S i) rest.
Proof.
  cbn [dec_ops]. f_equal. unfold cls, apply_op. crush_match.
Qed.

Lemma handle_meths_cons op rest i :
  handle_meths (op :: rest) i = op_handle i (cls op) ++ handle_meths rest (S i).
Proof.
  cbn [handle_meths]. unfold cls, op_handle. crush_match.
Qed.

Lemma ftb_cons op rest k :
  failing_task_before (op :: rest) (S k) =
  (match cls op with
   | OTask terr => negb (Z.eqb terr 0) && forallb okop (firstn k rest)
   | _ => false
   end) || failing_task_before rest k.
Proof.
  cbn [failing_task_before]. unfold cls. fold okop. crush_match.
Qed.

Lemma okop_cls o : okop o = true -> match cls o with OEH _ | OCopy _ _ _ => False | _ => True end.
Proof.
  unfold okop, cls. intros H.
  repeat match goal with
         | |- context [match ?x with _ => _ end] => is_var x; destruct x; try exact I; try discriminate
         end.
Qed.

Section Prog.
  Variable D : list Z.
  Variable f : fault.
  Notation build := (build D f true).
  Notation siblings := (siblings D f true).

  (** handles in observation order with their positions: siblings by op
      position, then the main handle *)
  Fixpoint J (p : prog) (i : nat) (ops : list sx) (m : meth) : list (nat * bres * meth) :=
    match ops with
    | [] => [(i, build p, m)]
    | op :: rest =>
        let p' := apply_op p i (cls op) in
        map (fun pm => (fst pm, build p', snd pm)) (op_handle i (cls op)) ++ J p' (S i) rest m
    end.

  Lemma J_meths m : forall ops p i,
    handle_meths ops i ++ [((i + length ops)%nat, m)] = map (fun t => (fst (fst t), snd t)) (J p i ops m).
  Proof.
    induction ops as [|op rest IH]; intros p i.
    - cbn. rewrite Nat.add_0_r. reflexivity.
    - rewrite handle_meths_cons. cbn [J length]. rewrite map_app, <- app_assoc.
      rewrite <- (IH (apply_op p i (cls op)) (S i)). rewrite Nat.add_succ_r. cbn [Nat.add].
      f_equal. destruct (cls op); reflexivity.
  Qed.

  Lemma siblings_apply p i o :
    siblings (apply_op p i o) =
    siblings p ++ map (fun pm => (build (apply_op p i o), snd pm)) (op_handle i o).
  Proof.
    destruct o; cbn [apply_op op_handle map]; try (rewrite app_nil_r; reflexivity);
      destruct (Z.eqb side 0); reflexivity.
  Qed.

  Lemma J_handles m : forall ops p i,
    siblings (dec_ops p i ops) ++ [(build (dec_ops p i ops), m)] =
    siblings p ++ map (fun t => (snd (fst t), snd t)) (J p i ops m).
  Proof.
    induction ops as [|op rest IH]; intros p i.
    - reflexivity.
    - rewrite dec_ops_cons, IH. cbn [J]. rewrite siblings_apply, map_app, <- app_assoc.
      f_equal. f_equal. rewrite !map_map. reflexivity.
  Qed.

  Lemma J_builds m : forall ops p i t, In t (J p i ops m) -> exists q, snd (fst t) = build q.
  Proof.
    induction ops as [|op rest IH]; intros p i t Hin; cbn [J] in Hin.
    - destruct Hin as [<-|[]]. exists p. reflexivity.
    - apply in_app_or in Hin. destruct Hin as [Hin|Hin]; [|eapply IH; exact Hin].
      apply in_map_iff in Hin. destruct Hin as (pm & <- & _). eexists. reflexivity.
  Qed.

  Lemma J_pos m : forall ops p i t, In t (J p i ops m) -> (i <= fst (fst t))%nat.
  Proof.
    induction ops as [|op rest IH]; intros p i t Hin; cbn [J] in Hin.
    - destruct Hin as [<-|[]]. cbn. lia.
    - apply in_app_or in Hin. destruct Hin as [Hin|Hin].
      + apply in_map_iff in Hin. destruct Hin as (pm & <- & Hpm). cbn.
        destruct (cls op); cbn in Hpm; try contradiction; destruct Hpm as [<-|[]]; cbn; lia.
      + pose proof (IH _ _ _ Hin). lia.
  Qed.

  Lemma base_kind_dec_ops : forall ops p i, base_kind (dec_ops p i ops) = base_kind p.
  Proof.
    induction ops as [|op rest IH]; intros p i; [reflexivity|].
    rewrite dec_ops_cons, IH. destruct (cls op); cbn; try reflexivity; destruct (Z.eqb side 0); reflexivity.
  Qed.

  Definition bnever_ok (b : bres) : Prop := forall n, b = BNode n -> never_ok D f n.

  Lemma bnever_ok_apply p i o : bnever_ok (build p) ->
    match o with OEH _ => False | _ => True end -> bnever_ok (build (apply_op p i o)).
  Proof.
    intros H Ho n Hn. destruct o; try contradiction; cbn [apply_op] in Hn.
    1,2: destruct (Z.eqb side 0).
    all: cbn [Algebra.build] in Hn; try (destruct (build p) as [|n0]; [discriminate|]; cbn [bbind] in Hn).
    1,2: inversion Hn; apply never_ok_cloneStream, H; reflexivity.
    1,2: eapply never_ok_cloneCopy; [apply H; reflexivity|exact Hn].
    - inversion Hn. apply never_ok_withTask, H. reflexivity.
    - apply H. exact Hn.
  Qed.

  (** once the object never reports Ok, neither does any later handle as long
      as no error handler / CloneCopy op lies strictly between *)
  Lemma J_never_ok m : forall ops p i t, bnever_ok (build p) -> In t (J p i ops m) ->
    forallb okop (firstn (fst (fst t) - i) ops) = true -> bnever_ok (snd (fst t)).
  Proof.
    induction ops as [|op rest IH]; intros p i t Hp Hin Hok; cbn [J] in Hin.
    - destruct Hin as [<-|[]]. exact Hp.
    - apply in_app_or in Hin. destruct Hin as [Hin|Hin].
      + apply in_map_iff in Hin. destruct Hin as (pm & <- & Hpm). cbn [fst snd].
        apply bnever_ok_apply; [exact Hp|]. destruct (cls op); cbn in Hpm; try contradiction; exact I.
      + pose proof (J_pos _ _ _ _ _ Hin) as Hpos.
        replace (fst (fst t) - i)%nat with (S (fst (fst t) - S i)) in Hok by lia.
        cbn [firstn forallb] in Hok. apply andb_true_iff in Hok. destruct Hok as [Ho Hrest].
        apply (IH (apply_op p i (cls op)) (S i) t); [|exact Hin|exact Hrest].
        apply bnever_ok_apply; [exact Hp|]. pose proof (okop_cls op Ho). destruct (cls op); try contradiction; exact I.
  Qed.

  Lemma J_clause6 m : forall ops p i t, In t (J p i ops m) ->
    failing_task_before ops (fst (fst t) - i) = true -> bnever_ok (snd (fst t)).
  Proof.
    induction ops as [|op rest IH]; intros p i t Hin Hf; cbn [J] in Hin.
    - destruct (fst (fst t) - i)%nat; discriminate.
    - apply in_app_or in Hin. destruct Hin as [Hin|Hin].
      + apply in_map_iff in Hin. destruct Hin as (pm & <- & Hpm). exfalso.
        assert (fst pm = i) by (destruct (cls op); cbn in Hpm; try contradiction; destruct Hpm as [<-|[]]; reflexivity).
        cbn [fst] in Hf. rewrite H, Nat.sub_diag in Hf. discriminate.
      + pose proof (J_pos _ _ _ _ _ Hin) as Hpos.
        replace (fst (fst t) - i)%nat with (S (fst (fst t) - S i)) in Hf by lia.
        rewrite ftb_cons in Hf. apply orb_true_iff in Hf. destruct Hf as [Hf|Hf].
        * destruct (cls op) eqn:Ec; try discriminate.
          apply andb_true_iff in Hf. destruct Hf as [Hne Hok].
          apply (J_never_ok m rest (apply_op p i (OTask terr)) (S i) t); [|exact Hin|exact Hok].
          cbn [apply_op]. intros n Hn. cbn [Algebra.build] in Hn.
          destruct (build p) as [|n0]; [discriminate|]. cbn in Hn. inversion Hn.
          apply never_ok_withTask_failing. apply negb_true_iff, Z.eqb_neq in Hne. exact Hne.
        * eapply IH; [exact Hin|exact Hf].
  Qed.
End Prog.

Lemma combine_map {A B C} (g1 : A -> B) (g2 : A -> C) l :
  combine (map g1 l) (map g2 l) = map (fun t => (g1 t, g2 t)) l.
Proof. induction l; cbn; [reflexivity|f_equal; assumption]. Qed.

Lemma existsb_map {A B} (g : A -> B) (h : B -> bool) l : existsb h (map g l) = existsb (fun x => h (g x)) l.
Proof. induction l; cbn; [reflexivity|f_equal; assumption]. Qed.

Lemma spec_bytes_ok D m r : spec_ok D m r -> spec_bytes D m (enc_res r) = true.
Proof.
  destruct r; cbn [enc_res spec_bytes]; try reflexivity.
  - intros ->. destruct m; cbn [expected]; apply SxFactsMA.sx_eqb_refl.
  - intros (len & off & -> & -> & Hlt). rewrite SxFactsMA.sx_eqb_refl. cbn. apply Nat.ltb_lt. exact Hlt.
Qed.

Theorem mon15_prog_silent inp : mon15_prog inp (run15_prog inp) = [].
Proof.
  unfold mon15_prog, run15_prog.
  set (D := data_of (sx_Zs (sx_nth inp 4))). set (f := dec_fault (sx_Z (sx_nth inp 3))).
  set (ktag := sx_Z (sx_nth inp 1)). set (ops := sx_list (sx_nth inp 5)).
  set (p0 := Base (dec_kind ktag (sx_Z (sx_nth inp 2)))). set (m := dec_meth (sx_nth inp 6)).
  rewrite (J_handles D f m ops p0 0).
  change (siblings D f true p0) with (@nil (bres * meth)). cbn [app].
  rewrite <- (Nat.add_0_l (length ops)). rewrite (J_meths D f m ops p0 0).
  set (JJ := J D f p0 0 ops m).
  unfold sx_nth. cbn [sx_list nth]. rewrite !map_map.
  rewrite combine_map.
  (* properties of every handle *)
  assert (HJ : forall t, In t JJ ->
            exists n, snd (fst t) = BNode n /\ wf D n /\ eval D f n (snd t) <> Panic).
  { intros t Hin. destruct (J_builds D f m ops p0 0 t Hin) as (q & ->). apply handle_ok. }
  assert (C3 : is_stream_clone ktag ops && negb (Z.eqb (Z.of_nat (closes D f true (dec_ops p0 0 ops))) 1) = false).
  { unfold is_stream_clone, closes. rewrite base_kind_dec_ops. cbn [base_kind p0].
    destruct (Z.eqb ktag 4) eqn:E4; [apply Z.eqb_eq in E4; rewrite E4; cbn; apply andb_false_r|].
    destruct (Z.eqb ktag 5) eqn:E5; [apply Z.eqb_eq in E5; rewrite E5; cbn; apply andb_false_r|].
    reflexivity. }
  rewrite !existsb_map.
  rewrite existsb_false_forall.
  2:{ intros t Hin. destruct (HJ t Hin) as (n & Hn & _ & Hnp).
      cbn [sx_list nth]. unfold run_handle. cbn [fst snd]. rewrite Hn.
      destruct (eval D f n (snd t)); try reflexivity. contradiction. }
  cbn [sx_bool sx_Z Z.eqb negb app andb of_nat]. rewrite C3.
  (* 4: the model always waits *)
  rewrite existsb_false_forall.
  2:{ intros t _. cbn. apply andb_false_r. }
  rewrite existsb_false_forall.
  2:{ intros t Hin. destruct (HJ t Hin) as (n & Hn & Hw & _).
      cbn [fst snd sx_list nth]. unfold run_handle. cbn [fst snd]. rewrite Hn.
      rewrite spec_bytes_ok; [reflexivity|]. apply eval_spec. exact Hw. }
  rewrite existsb_false_forall.
  2:{ intros t Hin. destruct (HJ t Hin) as (n & Hn & Hw & _).
      cbn [fst snd sx_list nth]. unfold run_handle. cbn [fst snd]. rewrite Hn.
      destruct (completing (snd t)) eqn:Ec; [|reflexivity].
      destruct (failing_task_before ops (fst (fst t))) eqn:Ef; [|apply andb_false_r].
      assert (Hnev : never_ok D f n).
      { apply (J_clause6 D f m ops p0 0 t Hin); [rewrite Nat.sub_0_r; exact Ef|exact Hn]. }
      assert (Hcm : AlgebraProofs.completing (snd t)).
      { unfold completing in Ec. split; intros X; rewrite X in Ec; discriminate. }
      pose proof (Hnev (snd t) Hcm) as Hno.
      destruct (eval D f n (snd t)); try reflexivity. exfalso. eapply Hno. reflexivity. }
  reflexivity.
Qed.

(** Both halves: the C15 monitor is silent on the model's own output. *)
Theorem mon15_silent_on_model inp :
  (sx_nth inp 0 = A 2 -> sx_list (sx_nth inp 3) <> [] /\ sx_Z (sx_nth inp 2) <> 99%Z) ->
  mon15 inp (run15 inp) = [].
Proof.
  intros H. unfold mon15, run15.
  destruct (sx_nth inp 0) as [z|l] eqn:E; [|reflexivity].
  destruct z as [|q|q]; try reflexivity.
  destruct q as [q|q|]; try reflexivity; [|apply mon15_prog_silent].
  destruct q; try reflexivity. destruct (H eq_refl) as [H1 H2]. apply mon15_mux_silent; assumption.
Qed.
