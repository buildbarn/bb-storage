(** Round-trip and equality facts about the shared data format [sx], used by
    the "monitor is silent on the model" proofs. *)
From Coq Require Import List ZArith NArith Bool Arith Lia.
From BBS Require Import Common.Sx.
Import ListNotations.
Open Scope Z_scope.

Lemma sx_eqb_refl : forall s, sx_eqb s s = true.
Proof.
  fix IH 1. intros [z|l].
  - cbn. apply Z.eqb_refl.
  - cbn. induction l as [|x l IHl]; [reflexivity|]. rewrite IH. exact IHl.
Qed.

Lemma sx_eqb_eq : forall a b, sx_eqb a b = true -> a = b.
Proof.
  fix IH 1. intros [x|xs] [y|ys]; cbn; intros H; try discriminate.
  - apply Z.eqb_eq in H. subst. reflexivity.
  - f_equal. revert ys H. induction xs as [|a xs IHl]; intros [|b ys] H; try discriminate; [reflexivity|].
    apply andb_true_iff in H. destruct H as [H1 H2].
    rewrite (IH a b H1). f_equal. apply IHl. exact H2.
Qed.

Lemma sx_eqb_iff a b : sx_eqb a b = true <-> a = b.
Proof. split; [apply sx_eqb_eq|intros ->; apply sx_eqb_refl]. Qed.

Lemma sx_nat_of_nat n : sx_nat (of_nat n) = n.
Proof. unfold sx_nat, of_nat. cbn [sx_Z]. apply Nat2Z.id. Qed.
Lemma sx_N_of_N n : sx_N (of_N n) = n.
Proof. unfold sx_N, of_N. cbn [sx_Z]. apply N2Z.id. Qed.
Lemma sx_bool_of_bool b : sx_bool (of_bool b) = b.
Proof. destruct b; reflexivity. Qed.
Lemma sx_nats_of_nats l : sx_nats (of_nats l) = l.
Proof.
  unfold sx_nats, of_nats. cbn [sx_list]. rewrite map_map.
  induction l as [|x l IH]; [reflexivity|]. cbn [map]. rewrite sx_nat_of_nat, IH. reflexivity.
Qed.
Lemma sx_Ns_of_Ns l : sx_Ns (of_Ns l) = l.
Proof.
  unfold sx_Ns, of_Ns. cbn [sx_list]. rewrite map_map.
  induction l as [|x l IH]; [reflexivity|]. cbn [map]. rewrite sx_N_of_N, IH. reflexivity.
Qed.
Lemma sx_Zs_of_Zs l : sx_Zs (of_Zs l) = l.
Proof.
  unfold sx_Zs, of_Zs. cbn [sx_list]. rewrite map_map.
  induction l as [|x l IH]; [reflexivity|]. cbn [map]. f_equal. exact IH.
Qed.

(** the verdict of a judge: "agree" and "violates" fields *)
Definition judged_agree (v : sx) : bool := sx_bool (sx_nth v 0).
Definition judged_violates (v : sx) : bool := sx_bool (sx_nth v 1).

Lemma verdict_fields a v m d : judged_agree (verdict a v m d) = a /\ judged_violates (verdict a v m d) = v.
Proof.
  unfold judged_agree, judged_violates, verdict, sx_nth. cbn [sx_list nth]. rewrite !sx_bool_of_bool.
  split; reflexivity.
Qed.

(** for the default judge: a monitor that is silent on the model never fires
    on an observation the judge accepts as agreeing with the model *)
Lemma judge_det_agree_not_violates (run : sx -> sx) (mon : sx -> sx -> list Z) inp obs :
  mon inp (run inp) = [] ->
  judged_agree (judge_det run mon inp obs) = true -> judged_violates (judge_det run mon inp obs) = false.
Proof.
  intros Hm. unfold judge_det. cbv zeta.
  destruct (verdict_fields (sx_eqb (run inp) obs) (negb (match mon inp obs with [] => true | _ => false end))
              (run inp) (of_Zs (mon inp obs))) as [-> ->].
  intros Ha. apply sx_eqb_eq in Ha. subst obs. rewrite Hm. reflexivity.
Qed.
