(** Arithmetic facts: Log2Fixed stays below 64<<16, scores are positive. *)
From Coq Require Import List NArith Lia.
From BBS Require Import Generated.Consts Sharding.Rendezvous.
Import ListNotations.
Open Scope N_scope.

Lemma wrap_lt x : wrap x < 2 ^ 64.
Proof. unfold wrap, w64. apply N.mod_lt. discriminate. Qed.

Lemma log2_lt_of_lt_pow2 a n : 0 < n -> a < 2 ^ n -> N.log2 a < n.
Proof.
  intros Hn Ha. destruct a as [|p]; [exact Hn|].
  apply N.log2_lt_pow2; [reflexivity|exact Ha].
Qed.

Lemma lt_pow2_by_log2 a b c n :
  0 < n -> N.log2 c <= N.max (N.log2 a) (N.log2 b) -> a < 2 ^ n -> b < 2 ^ n -> c < 2 ^ n.
Proof.
  intros Hn Hc Ha Hb.
  destruct c as [|p]; [apply N.neq_0_lt_0; apply N.pow_nonzero; discriminate|].
  apply N.log2_lt_pow2; [reflexivity|].
  apply N.le_lt_trans with (1 := Hc). apply N.max_lub_lt; apply log2_lt_of_lt_pow2; assumption.
Qed.

Lemma lor_lt_pow2 a b n : 0 < n -> a < 2 ^ n -> b < 2 ^ n -> N.lor a b < 2 ^ n.
Proof. intros Hn. apply lt_pow2_by_log2; [exact Hn|]. rewrite N.log2_lor. apply N.le_refl. Qed.

Lemma lxor_lt_pow2 a b n : 0 < n -> a < 2 ^ n -> b < 2 ^ n -> N.lxor a b < 2 ^ n.
Proof. intros Hn. apply lt_pow2_by_log2; [exact Hn|]. apply N.log2_lxor. Qed.

Lemma shr_le x n : shr x n <= x.
Proof.
  unfold shr. rewrite N.shiftr_div_pow2.
  apply N.div_le_upper_bound; [apply N.pow_nonzero; discriminate|].
  pose proof (N.pow_nonzero 2 n ltac:(discriminate)). nia.
Qed.

Lemma splitmix64_lt x : splitmix64 x < 2 ^ 64.
Proof.
  unfold splitmix64.
  apply lxor_lt_pow2; [reflexivity| |].
  - apply wrap_lt.
  - eapply N.le_lt_trans; [apply shr_le|apply wrap_lt].
Qed.

Lemma size_shr1_le x : x < 2 ^ 64 -> N.size (shr x 1) <= 63.
Proof.
  intros Hx. unfold shr. rewrite N.shiftr_div_pow2. change (2 ^ 1) with 2.
  assert (Hh : x / 2 < 2 ^ 63).
  { apply N.div_lt_upper_bound; [discriminate|]. change (2 * 2 ^ 63) with (2 ^ 64). exact Hx. }
  destruct (N.eq_dec (x / 2) 0) as [->|Hz]; [cbn; lia|].
  rewrite N.size_log2 by exact Hz.
  apply N.le_succ_l. apply log2_lt_of_lt_pow2; [reflexivity|exact Hh].
Qed.

Theorem log2_fixed_lt x : x < 2 ^ 64 -> log2_fixed x < N.shiftl 64 16.
Proof.
  intros Hx. unfold log2_fixed. change (N.shiftl 64 16) with (2 ^ 22).
  apply lor_lt_pow2; [reflexivity| |].
  - rewrite N.shiftl_mul_pow2. pose proof (size_shr1_le x Hx). change (2 ^ 22) with (64 * 2 ^ 16). nia.
  - unfold shr. rewrite N.shiftr_div_pow2.
    apply N.lt_trans with (2 ^ 16); [|reflexivity].
    apply N.div_lt_upper_bound; [apply N.pow_nonzero; discriminate|].
    change (2 ^ 48 * 2 ^ 16) with (2 ^ 64). apply wrap_lt.
Qed.

Theorem score_pos x w : x < 2 ^ 64 -> 1 <= w -> 1 <= score x w.
Proof.
  intros Hx Hw. unfold score.
  pose proof (log2_fixed_lt x Hx) as Hl.
  change score_int_bits with 64. change score_frac_bits with 16. change score_weight_shift with 32.
  set (lf := log2_fixed x) in *. change (N.shiftl 64 16) with 4194304 in *.
  rewrite N.shiftl_mul_pow2.
  assert (0 < w * 2 ^ 32 / (4194304 - lf)); [|lia].
  apply N.div_str_pos. split; [lia|].
  change (2 ^ 32) with 4294967296. lia.
Qed.

Theorem shard_score_pos h s : 1 <= s_weight s -> 1 <= shard_score h s.
Proof. intros Hw. unfold shard_score. apply score_pos; [apply splitmix64_lt|exact Hw]. Qed.
