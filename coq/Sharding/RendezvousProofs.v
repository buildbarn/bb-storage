(** GetShard is an argmax over the *set* of (key hash, weight) pairs; the
    routing consequences (order independence, minimal disruption). *)
From Coq Require Import List Arith NArith Lia Permutation Sorted.
From BBS Require Import Common.ListX Sharding.Rendezvous Sharding.RendezvousArith.
Import ListNotations.
Open Scope N_scope.

Definition proj (s : shard) : N * N := (s_hash s, s_weight s).

Lemma NoDup_map_inj {T U} (f : T -> U) l a b :
  NoDup (map f l) -> In a l -> In b l -> f a = f b -> a = b.
Proof.
  induction l as [|x l IH]; intros Hnd Ha Hb Hf; [destruct Ha|].
  cbn [map] in Hnd. inversion Hnd as [|y m Hni Hnd']; subst.
  destruct Ha as [->|Ha]; destruct Hb as [->|Hb]; try reflexivity.
  - exfalso. apply Hni. rewrite Hf. apply in_map. exact Hb.
  - exfalso. apply Hni. rewrite <- Hf. apply in_map. exact Ha.
  - apply IH; assumption.
Qed.

Definition hash_lt (a b : shard) : Prop := s_hash a < s_hash b.

Lemma insert_by_hash_in s x l : In x (insert_by_hash s l) <-> In x (s :: l).
Proof.
  induction l as [|h t IH]; cbn [insert_by_hash]; [reflexivity|].
  destruct (s_hash s <? s_hash h); [reflexivity|].
  cbn [In] in *. rewrite IH. split; intros [H|[H|H]]; auto.
Qed.

Lemma sort_by_hash_in x l : In x (sort_by_hash l) <-> In x l.
Proof.
  induction l as [|h t IH]; cbn [sort_by_hash fold_right]; [reflexivity|].
  fold (sort_by_hash t). rewrite insert_by_hash_in. cbn [In]. rewrite IH. reflexivity.
Qed.

Lemma insert_by_hash_sorted s l :
  StronglySorted hash_lt l -> (forall x, In x l -> s_hash x <> s_hash s) ->
  StronglySorted hash_lt (insert_by_hash s l).
Proof.
  induction l as [|h t IH]; intros Hs Hne; cbn [insert_by_hash].
  - repeat constructor.
  - destruct (StronglySorted_inv Hs) as [Hst Hall]. rewrite Forall_forall in Hall.
    destruct (s_hash s <? s_hash h) eqn:Hlt.
    + apply N.ltb_lt in Hlt. constructor; [exact Hs|].
      constructor; [exact Hlt|]. apply Forall_forall. intros x Hx.
      exact (N.lt_trans _ _ _ Hlt (Hall x Hx)).
    + apply N.ltb_ge in Hlt. constructor.
      * apply IH; [exact Hst|]. intros x Hx. apply Hne. right; exact Hx.
      * apply Forall_forall. intros x Hx. apply insert_by_hash_in in Hx.
        destruct Hx as [<-|Hx]; [|apply Hall; exact Hx].
        apply N.le_neq. split; [exact Hlt|apply Hne; left; reflexivity].
Qed.

Lemma sort_by_hash_sorted l :
  NoDup (map s_hash l) -> StronglySorted hash_lt (sort_by_hash l).
Proof.
  induction l as [|h t IH]; intros Hnd; cbn [sort_by_hash fold_right]; [constructor|].
  fold (sort_by_hash t). cbn [map] in Hnd. apply NoDup_cons_iff in Hnd. destruct Hnd as [Hni Hnd'].
  apply insert_by_hash_sorted; [apply IH; exact Hnd'|].
  intros x Hx Heq. apply (proj1 (sort_by_hash_in x t)) in Hx. apply Hni. rewrite <- Heq. apply in_map. exact Hx.
Qed.

Section Argmax.
  Variable scp : N * N -> N.
  Definition sc (s : shard) : N := scp (proj s).

  Definition betterP (p q : N * N) : Prop :=
    scp q < scp p \/ (scp q = scp p /\ fst p <= fst q).
  Definition is_bestP (l : list (N * N)) (p : N * N) : Prop :=
    In p l /\ forall q, In q l -> betterP p q.

  Lemma betterP_trans p q r : betterP p q -> betterP q r -> betterP p r.
  Proof.
    intros [H1|[E1 L1]] [H2|[E2 L2]].
    - left. exact (N.lt_trans _ _ _ H2 H1).
    - left. rewrite E2. exact H1.
    - left. rewrite <- E1. exact H2.
    - right. split; [rewrite E2; exact E1|exact (N.le_trans _ _ _ L1 L2)].
  Qed.

  Lemma betterP_antisym p q : betterP p q -> betterP q p -> fst p = fst q.
  Proof.
    intros [H1|[E1 L1]] [H2|[E2 L2]].
    - destruct (N.lt_asymm _ _ H1 H2).
    - rewrite E2 in H1. destruct (N.lt_irrefl _ H1).
    - rewrite E1 in H2. destruct (N.lt_irrefl _ H2).
    - apply N.le_antisymm; assumption.
  Qed.

  Lemma is_bestP_cross_fst lS lT p q :
    is_bestP lS p -> is_bestP lT q -> In p lT -> In q lS -> fst p = fst q.
  Proof.
    intros [_ HbP] [_ HbQ] HpT HqS. exact (betterP_antisym p q (HbP q HqS) (HbQ p HpT)).
  Qed.

  Lemma is_bestP_cross lS lT p q :
    NoDup (map fst lS) -> is_bestP lS p -> is_bestP lT q -> In p lT -> In q lS -> p = q.
  Proof.
    intros Hnd HbP HbQ HpT HqS.
    apply (NoDup_map_inj fst lS); [exact Hnd|apply HbP|exact HqS|].
    exact (is_bestP_cross_fst lS lT p q HbP HbQ HpT HqS).
  Qed.

  Lemma is_bestP_unique l p q :
    NoDup (map fst l) -> is_bestP l p -> is_bestP l q -> p = q.
  Proof. intros Hnd Hp Hq. apply (is_bestP_cross l l); [exact Hnd|exact Hp|exact Hq|apply Hp|apply Hq]. Qed.

  (** element-returning version of the loop *)
  Definition score_of (c : option shard) : N := match c with None => 0 | Some s => sc s end.
  Definition idx_of (c : option shard) : nat := match c with None => 0%nat | Some s => s_index s end.
  Fixpoint get_elem (l : list shard) (cur : option shard) : option shard :=
    match l with
    | [] => cur
    | s :: t => if score_of cur <? sc s then get_elem t (Some s) else get_elem t cur
    end.

  Lemma get_loop_elem l cur :
    get_loop sc l (score_of cur) (idx_of cur) = idx_of (get_elem l cur).
  Proof.
    revert cur. induction l as [|s t IH]; intros cur; cbn [get_loop get_elem]; [reflexivity|].
    destruct (score_of cur <? sc s).
    - apply (IH (Some s)).
    - apply IH.
  Qed.

  Lemma get_elem_best c l :
    StronglySorted hash_lt (c :: l) ->
    exists r, get_elem l (Some c) = Some r /\ In r (c :: l)
              /\ forall s, In s (c :: l) -> betterP (proj r) (proj s).
  Proof.
    revert c. induction l as [|s t IH]; intros c Hs; cbn [get_elem score_of].
    - exists c. split; [reflexivity|]. split; [left; reflexivity|].
      intros s [<-|[]]. right. split; [reflexivity|apply N.le_refl].
    - destruct (StronglySorted_inv Hs) as [Hst Hall].
      pose proof (Forall_inv Hall) as Hcs. pose proof (Forall_inv_tail Hall) as Hct.
      destruct (sc c <? sc s) eqn:Hlt.
      + apply N.ltb_lt in Hlt. destruct (IH s Hst) as (r & Hr & Hin & Hb).
        exists r. split; [exact Hr|]. split; [right; exact Hin|].
        intros x [<-|Hx]; [|apply Hb; exact Hx].
        apply (betterP_trans _ (proj s)); [apply Hb; left; reflexivity|left; exact Hlt].
      + (* the candidate stays on a tie: it has the smaller hash *)
        apply N.ltb_ge, N.le_lteq in Hlt.
        assert (Hs' : StronglySorted hash_lt (c :: t)).
        { constructor; [apply (StronglySorted_inv Hst)|exact Hct]. }
        destruct (IH c Hs') as (r & Hr & Hin & Hb).
        exists r. split; [exact Hr|]. split; [destruct Hin as [<-|Hin]; [left; reflexivity|right; right; exact Hin]|].
        intros x [<-|[<-|Hx]]; [apply Hb; left; reflexivity| |apply Hb; right; exact Hx].
        apply (betterP_trans _ (proj c)); [apply Hb; left; reflexivity|].
        destruct Hlt as [Hlt|Heq]; [left; exact Hlt|right].
        split; [exact Heq|apply N.lt_le_incl; exact Hcs].
  Qed.

  Definition chosen (sel : list shard) : option shard := get_elem sel None.

  Lemma chosen_best l :
    l <> [] -> NoDup (map s_hash l) -> (forall s, In s l -> 0 < sc s) ->
    exists r, chosen (sort_by_hash l) = Some r /\ In r l /\ is_bestP (map proj l) (proj r).
  Proof.
    intros Hne Hnd Hpos. pose proof (sort_by_hash_sorted l Hnd) as Hs.
    pose proof (fun x => sort_by_hash_in x l) as Hin_l.
    unfold chosen. destruct (sort_by_hash l) as [|c t].
    - destruct l as [|a l']; [contradiction|]. destruct (proj2 (Hin_l a) (or_introl eq_refl)).
    - assert (Hc : 0 <? sc c = true) by (apply N.ltb_lt, Hpos, Hin_l; left; reflexivity).
      cbn [get_elem score_of]. rewrite Hc.
      destruct (get_elem_best c t Hs) as (r & Hr & Hin & Hb).
      apply Hin_l in Hin.
      exists r. split; [exact Hr|]. split; [exact Hin|]. split; [apply in_map; exact Hin|].
      intros q Hq. apply in_map_iff in Hq. destruct Hq as (s & <- & Hs').
      apply Hb, Hin_l. exact Hs'.
  Qed.
End Argmax.

Definition scoreP (h : N) (p : N * N) : N := score (splitmix64 (N.lxor (fst p) h)) (snd p).

Definition valid (cfg : list (N * N)) : Prop :=
  cfg <> [] /\ NoDup (map fst cfg) /\ forall p, In p cfg -> fst p < 2 ^ 64 /\ 1 <= snd p.

Definition select (cfg : list (N * N)) (h : N) : option (N * N) :=
  match new_selector cfg with
  | Some sel => option_map proj (chosen (scoreP h) sel)
  | None => None
  end.

Definition index_from (k : nat) (l : list (N * N)) : list shard :=
  map (fun '(i, (h, w)) => {| s_hash := h; s_weight := w; s_index := i |})
      (combine (seq k (length l)) l).

Lemma index_from_proj k l : map proj (index_from k l) = l.
Proof.
  revert k. induction l as [|[h w] t IH]; intros k; [reflexivity|].
  unfold index_from in *. cbn [length seq combine map]. rewrite IH. reflexivity.
Qed.

Lemma index_from_nth k l s :
  In s (index_from k l) -> exists j, s_index s = (k + j)%nat /\ nth_error l j = Some (proj s).
Proof.
  revert k. induction l as [|[h w] t IH]; intros k Hin; [destruct Hin|].
  unfold index_from in *. cbn [length seq combine map] in Hin.
  destruct Hin as [<-|Hin].
  - exists 0%nat. split; [symmetry; apply Nat.add_0_r|reflexivity].
  - destruct (IH (S k) Hin) as (j & Hj & Hn). exists (S j).
    split; [rewrite Hj; apply plus_n_Sm|exact Hn].
Qed.

Lemma map_hash_proj l : map s_hash l = map fst (map proj l).
Proof. rewrite map_map. reflexivity. Qed.

Lemma has_dup_hash_false_iff l : has_dup_hash l = false <-> NoDup (map s_hash l).
Proof.
  induction l as [|s t IH]; cbn [has_dup_hash map]; [split; [constructor|reflexivity]|].
  rewrite Bool.orb_false_iff, NoDup_cons_iff, IH, <- Bool.not_true_iff_false, existsb_exists, in_map_iff.
  assert (He : (exists x, In x t /\ (s_hash x =? s_hash s) = true) <-> exists x, s_hash x = s_hash s /\ In x t).
  { split; intros (x & A & B); exists x; [apply N.eqb_eq in B|apply N.eqb_eq in A]; split; assumption. }
  rewrite He. reflexivity.
Qed.

Lemma new_selector_some cfg sel :
  new_selector cfg = Some sel ->
  cfg <> [] /\ NoDup (map fst cfg) /\ sel = sort_by_hash (index_from 0 cfg).
Proof.
  unfold new_selector. destruct cfg as [|p t]; [discriminate|].
  change (index_shards (p :: t)) with (index_from 0 (p :: t)).
  destruct (has_dup_hash _) eqn:Hd; [discriminate|]. intros H. injection H as <-.
  split; [discriminate|]. split; [|reflexivity].
  apply has_dup_hash_false_iff in Hd. rewrite map_hash_proj, index_from_proj in Hd. exact Hd.
Qed.

Lemma new_selector_valid cfg :
  valid cfg -> new_selector cfg = Some (sort_by_hash (index_from 0 cfg)).
Proof.
  intros (Hne & Hnd & _). unfold new_selector. destruct cfg as [|p t]; [contradiction|].
  change (index_shards (p :: t)) with (index_from 0 (p :: t)).
  rewrite (proj2 (has_dup_hash_false_iff _)); [reflexivity|].
  rewrite map_hash_proj, index_from_proj. exact Hnd.
Qed.

Lemma valid_weights cfg : valid cfg -> forall p, In p cfg -> 1 <= snd p.
Proof. intros (_ & _ & Hw) p Hp. apply (Hw p Hp). Qed.

Lemma get_shard_chosen sel h : get_shard sel h = idx_of (chosen (scoreP h) sel).
Proof. exact (get_loop_elem (scoreP h) sel None). Qed.

Lemma chosen_selector cfg sel h :
  new_selector cfg = Some sel -> (forall p, In p cfg -> 1 <= snd p) ->
  exists r, chosen (scoreP h) sel = Some r /\ nth_error cfg (s_index r) = Some (proj r)
            /\ is_bestP (scoreP h) cfg (proj r).
Proof.
  intros Hs Hw. destruct (new_selector_some cfg sel Hs) as (Hne & Hnd & ->).
  destruct (chosen_best (scoreP h) (index_from 0 cfg)) as (r & Hc & Hin & Hb).
  - intros H. apply Hne. rewrite <- (index_from_proj 0 cfg), H. reflexivity.
  - rewrite map_hash_proj, index_from_proj. exact Hnd.
  - intros s Hin. apply N.lt_le_trans with 1; [reflexivity|]. apply (shard_score_pos h s).
    apply (Hw (proj s)). rewrite <- (index_from_proj 0 cfg). apply in_map. exact Hin.
  - exists r. rewrite index_from_proj in Hb. split; [exact Hc|]. split; [|exact Hb].
    destruct (index_from_nth 0 cfg r Hin) as (j & Hj & Hn). rewrite Hj. exact Hn.
Qed.

Theorem select_best cfg h :
  valid cfg -> exists p, select cfg h = Some p /\ is_bestP (scoreP h) cfg p.
Proof.
  intros Hv. pose proof (new_selector_valid cfg Hv) as Hs.
  destruct (chosen_selector cfg _ h Hs (valid_weights cfg Hv)) as (r & Hc & _ & Hb).
  exists (proj r). unfold select. rewrite Hs, Hc. split; [reflexivity|exact Hb].
Qed.

Lemma select_some_best cfg h p : valid cfg -> select cfg h = Some p -> is_bestP (scoreP h) cfg p.
Proof. intros Hv Hs. destruct (select_best cfg h Hv) as (p' & Hp' & Hb). congruence. Qed.

Theorem get_shard_index cfg sel h :
  valid cfg -> new_selector cfg = Some sel ->
  nth_error cfg (get_shard sel h) = select cfg h.
Proof.
  intros Hv Hs. destruct (chosen_selector cfg sel h Hs (valid_weights cfg Hv)) as (r & Hc & Hn & _).
  unfold select. rewrite Hs, get_shard_chosen, Hc. exact Hn.
Qed.

(** Independence of irrelevant alternatives: the general statement behind
    permutation, removal and addition (used as the run-time monitor). *)
Theorem select_iia cfgS cfgT h p q :
  valid cfgS -> valid cfgT ->
  select cfgS h = Some p -> select cfgT h = Some q -> In p cfgT -> In q cfgS -> p = q.
Proof.
  intros HvS HvT Hp Hq. apply (is_bestP_cross (scoreP h)); [apply HvS| |].
  - exact (select_some_best cfgS h p HvS Hp).
  - exact (select_some_best cfgT h q HvT Hq).
Qed.

Theorem select_sub cfg cfg' h p :
  valid cfg -> valid cfg' -> incl cfg' cfg -> select cfg h = Some p -> In p cfg' ->
  select cfg' h = Some p.
Proof.
  intros Hv Hv' Hsub Hs Hp. destruct (select_best cfg' h Hv') as (q & Hq & Hinq & _).
  rewrite Hq. f_equal. symmetry.
  exact (select_iia cfg cfg' h p q Hv Hv' Hs Hq Hp (Hsub q Hinq)).
Qed.

Lemma valid_perm cfg1 cfg2 : Permutation cfg1 cfg2 -> valid cfg1 -> valid cfg2.
Proof.
  intros HP (Hne & Hnd & Hw). split; [|split].
  - intros ->. apply Permutation_sym, Permutation_nil in HP. contradiction.
  - eapply Permutation_NoDup; [apply Permutation_map; exact HP|exact Hnd].
  - intros p Hp. apply Hw. eapply Permutation_in; [apply Permutation_sym; exact HP|exact Hp].
Qed.

(** Order independence. *)
Theorem select_perm cfg1 cfg2 h :
  valid cfg1 -> Permutation cfg1 cfg2 -> select cfg1 h = select cfg2 h.
Proof.
  intros Hv HP. destruct (select_best cfg1 h Hv) as (p & Hs & Hin & _).
  rewrite Hs. symmetry. apply (select_sub cfg1 cfg2 h p Hv (valid_perm _ _ HP Hv)); [|exact Hs|].
  - intros x Hx. eapply Permutation_in; [apply Permutation_sym; exact HP|exact Hx].
  - eapply Permutation_in; eassumption.
Qed.

Definition remove_key (k : N) (cfg : list (N * N)) : list (N * N) :=
  filter (fun q => negb (fst q =? k)) cfg.

Lemma NoDup_map_filter {T U} (f : T -> U) (g : T -> bool) l :
  NoDup (map f l) -> NoDup (map f (filter g l)).
Proof.
  induction l as [|a t IH]; cbn [map filter]; intros H; [constructor|].
  inversion H as [|x y Hni Hnd]; subst. destruct (g a); [|apply IH; exact Hnd].
  cbn [map]. constructor; [|apply IH; exact Hnd].
  intros Hin. apply Hni. apply in_map_iff in Hin. destruct Hin as (x & Hx & Hin).
  apply filter_In in Hin. rewrite <- Hx. apply in_map. apply Hin.
Qed.

(** Removing a shard re-routes only objects that were assigned to it. *)
Theorem select_remove cfg k h p :
  valid cfg -> select cfg h = Some p -> fst p <> k ->
  select (remove_key k cfg) h = Some p.
Proof.
  intros Hv Hs Hk. destruct (select_some_best cfg h p Hv Hs) as [Hin _].
  assert (Hinr : In p (remove_key k cfg)).
  { apply filter_In. split; [exact Hin|]. apply Bool.negb_true_iff. apply N.eqb_neq. exact Hk. }
  apply (select_sub cfg); [exact Hv| |apply incl_filter|exact Hs|exact Hinr].
  destruct Hv as (Hne & Hnd & Hw). split; [|split].
  - intros H. rewrite H in Hinr. destruct Hinr.
  - apply NoDup_map_filter. exact Hnd.
  - intros q Hq. apply Hw. apply filter_In in Hq. apply Hq.
Qed.

(** Adding a shard re-routes objects only to the new shard. *)
Theorem select_add cfg p h :
  valid cfg -> valid (p :: cfg) ->
  select (p :: cfg) h = Some p \/ select (p :: cfg) h = select cfg h.
Proof.
  intros Hv Hv'. destruct (select_best (p :: cfg) h Hv') as (q & Hs & [<-|Hin] & _).
  - left. exact Hs.
  - right. rewrite Hs. symmetry.
    apply (select_sub (p :: cfg) cfg h q Hv' Hv); [apply incl_tl, incl_refl|exact Hs|exact Hin].
Qed.

Lemma in_combine_map_iff {T U} (g : T -> U) l v o :
  In (v, o) (combine l (map g l)) <-> In v l /\ o = g v.
Proof.
  induction l as [|a l IH]; cbn [map combine In]; [split; [intros []|intros [[] _]]|]. split.
  - intros [H|H]; [injection H as <- <-; split; [left|]; reflexivity|].
    apply IH in H. split; [right; apply H|apply H].
  - intros [[->|H1] ->]; [left; reflexivity|right; apply IH; split; [exact H1|reflexivity]].
Qed.

Lemma fm_asked_spec sel nb oracle ds i p :
  In (i, p) (fst (find_missing sel nb oracle ds)) <->
  (i < nb)%nat /\ p = dedup_sort (map snd (filter (fun d => Nat.eqb (route sel d) i) ds)) /\ p <> [].
Proof.
  unfold find_missing, fm_parts. cbn [fst]. split.
  - intros H. apply filter_In in H. destruct H as [H Hne].
    apply in_combine_map_iff in H. destruct H as [Hi ->]. apply in_seq in Hi.
    split; [apply Hi|]. split; [reflexivity|]. intros Hnil. rewrite Hnil in Hne. discriminate.
  - intros (Hi & -> & Hne). apply filter_In. split.
    + apply in_combine_map_iff. split; [|reflexivity]. apply in_seq. split; [apply Nat.le_0_l|exact Hi].
    + destruct (dedup_sort _); [contradiction|reflexivity].
Qed.

(** Each backend is asked only about digests routed to it, and every digest
    of the request is put to the backend it is routed to. *)
Theorem fm_asks_own_only sel nb oracle ds i p x :
  In (i, p) (fst (find_missing sel nb oracle ds)) -> In x p ->
  exists d, In d ds /\ snd d = x /\ route sel d = i.
Proof.
  intros Hin Hx. apply fm_asked_spec in Hin. destruct Hin as (_ & -> & _).
  rewrite dedup_sort_in in Hx. apply in_map_iff in Hx. destruct Hx as (d & Hd & Hf).
  apply filter_In in Hf. destruct Hf as [Hin He]. apply Nat.eqb_eq in He.
  exists d. auto.
Qed.

Theorem fm_every_digest_asked sel nb oracle ds d :
  In d ds -> (route sel d < nb)%nat ->
  exists p, In (route sel d, p) (fst (find_missing sel nb oracle ds)) /\ In (snd d) p.
Proof.
  intros Hd Hr.
  set (p := dedup_sort (map snd (filter (fun d0 => Nat.eqb (route sel d0) (route sel d)) ds))).
  assert (Hx : In (snd d) p).
  { apply dedup_sort_in. apply in_map. apply filter_In. split; [exact Hd|apply Nat.eqb_refl]. }
  exists p. split; [|exact Hx]. apply fm_asked_spec. split; [exact Hr|]. split; [reflexivity|].
  intros Hnil. rewrite Hnil in Hx. destruct Hx.
Qed.

Definition fm_collect (answers : list fm_answer) : option (list nat) :=
  if forallb (fun a => match a with Some _ => true | None => false end) answers
  then Some (dedup_sort (concat (map (fun a => match a with Some m => m | None => [] end) answers)))
  else None.

Lemma find_missing_result sel nb oracle ds :
  snd (find_missing sel nb oracle ds)
  = fm_collect (map (fun '(i, p) => oracle i p) (fst (find_missing sel nb oracle ds))).
Proof. reflexivity. Qed.

Lemma fm_collect_none answers : fm_collect answers = None <-> In None answers.
Proof.
  unfold fm_collect. destruct (forallb _ _) eqn:H.
  - split; [discriminate|]. intros Hin. rewrite forallb_forall in H. discriminate (H None Hin).
  - split; [intros _|reflexivity].
    induction answers as [|[m|] t IH]; [discriminate H|right; apply IH; exact H|left; reflexivity].
Qed.

Lemma fm_collect_some answers res :
  fm_collect answers = Some res ->
  ~ In None answers
  /\ res = dedup_sort (concat (map (fun a => match a with Some m => m | None => [] end) answers)).
Proof.
  intros H. split; [intros Hin; apply fm_collect_none in Hin; congruence|].
  unfold fm_collect in H. destruct (forallb _ _); [|discriminate]. injection H as <-. reflexivity.
Qed.
