(** C12 — facts about the selector model needed to show that the run-time
    monitors are silent on the model:  the index returned by GetShard is in
    range, and the choice is the best pair of the configuration whenever all
    weights are non-zero, for EVERY hash and key hash (scores are positive
    without any 64-bit bound, [shard_score_pos]: splitmix64 wraps).
    Also the facts about clause lists and strictly sorted lists
    ([two_clauses_silent], [strictly_sorted_ext], [dedup_sort_ext]) that
    Run/R12Proofs.v uses. *)
From Coq Require Import List Arith NArith Lia Permutation Sorted.
From BBS Require Import Common.ListX
     Sharding.Rendezvous Sharding.RendezvousProofs.
Import ListNotations.
Open Scope N_scope.

Lemma two_clauses_silent (b1 b2 : bool) (c1 c2 : Z) :
  b1 = false -> b2 = false -> (if b1 then [c1] else []) ++ (if b2 then [c2] else []) = [].
Proof. intros -> ->. reflexivity. Qed.

Lemma two_checks_silent (b1 b2 : bool) (c1 c2 : Z) :
  b1 = true -> b2 = true -> (if b1 then [] else [c1]) ++ (if b2 then [] else [c2]) = [].
Proof. intros -> ->. reflexivity. Qed.

Lemma get_loop_cases (sc : shard -> N) l best bi :
  get_loop sc l best bi = bi \/ exists s, In s l /\ get_loop sc l best bi = s_index s.
Proof.
  revert best bi. induction l as [|s t IH]; intros best bi; cbn [get_loop]; [left; reflexivity|].
  destruct (best <? sc s).
  - destruct (IH (sc s) (s_index s)) as [H|(x & Hx & H)].
    + right. exists s. split; [left; reflexivity|exact H].
    + right. exists x. split; [right; exact Hx|exact H].
  - destruct (IH best bi) as [H|(x & Hx & H)].
    + left. exact H.
    + right. exists x. split; [right; exact Hx|exact H].
Qed.

Lemma get_shard_in_range cfg sel h :
  new_selector cfg = Some sel -> (get_shard sel h < length cfg)%nat.
Proof.
  intros Hs. destruct (new_selector_some cfg sel Hs) as (Hne & _ & ->).
  unfold get_shard.
  destruct (get_loop_cases (shard_score h) (sort_by_hash (index_from 0 cfg)) 0 0%nat) as [H|(s & Hin & H)];
    rewrite H.
  - destruct cfg; [contradiction|cbn; lia].
  - apply (proj1 (sort_by_hash_in s _)) in Hin. destruct (index_from_nth 0 cfg s Hin) as (j & Hj & Hn).
    rewrite Hj. apply nth_error_Some. cbn [Nat.add]. rewrite Hn. discriminate.
Qed.

Definition weights_pos (cfg : list (N * N)) : Prop := forall p, In p cfg -> 1 <= snd p.

Lemma get_shard_best cfg sel h :
  new_selector cfg = Some sel -> weights_pos cfg ->
  exists p, nth_error cfg (get_shard sel h) = Some p /\ is_bestP (scoreP h) cfg p.
Proof.
  intros Hs Hw. destruct (chosen_selector cfg sel h Hs Hw) as (r & Hc & Hn & Hb).
  exists (proj r). rewrite get_shard_chosen, Hc. split; [exact Hn|exact Hb].
Qed.

Lemma strictly_sorted_head_min x l : strictly_sorted (x :: l) -> forall y, In y l -> (x < y)%nat.
Proof.
  revert x. induction l as [|a l IH]; intros x Hs y Hy; [destruct Hy|].
  inversion Hs as [| |x' y' l' Hxy Hs']; subst.
  destruct Hy as [<-|Hy]; [exact Hxy|].
  specialize (IH a Hs' y Hy). lia.
Qed.

Lemma strictly_sorted_tail x l : strictly_sorted (x :: l) -> strictly_sorted l.
Proof. intros H. inversion H; subst; [constructor|assumption]. Qed.

Lemma strictly_sorted_head_le a b l : strictly_sorted (b :: l) -> In a (b :: l) -> (b <= a)%nat.
Proof.
  intros Hs [<-|Ha]; [apply Nat.le_refl|].
  apply Nat.lt_le_incl. exact (strictly_sorted_head_min b l Hs a Ha).
Qed.

Lemma strictly_sorted_tail_incl a l1 l2 :
  strictly_sorted (a :: l1) -> (forall x, In x (a :: l1) -> In x (a :: l2)) ->
  forall x, In x l1 -> In x l2.
Proof.
  intros Hs He x Hx. destruct (He x (or_intror Hx)) as [<-|H]; [|exact H].
  pose proof (strictly_sorted_head_min a l1 Hs a Hx). lia.
Qed.

Lemma strictly_sorted_ext l1 l2 :
  strictly_sorted l1 -> strictly_sorted l2 -> (forall x, In x l1 <-> In x l2) -> l1 = l2.
Proof.
  revert l2. induction l1 as [|a l1 IH]; intros [|b l2] H1 H2 He.
  - reflexivity.
  - destruct (proj2 (He b) (or_introl eq_refl)).
  - destruct (proj1 (He a) (or_introl eq_refl)).
  - assert (Hab : a = b).
    { apply Nat.le_antisymm.
      - apply (strictly_sorted_head_le b a l1 H1), He. left; reflexivity.
      - apply (strictly_sorted_head_le a b l2 H2), He. left; reflexivity. }
    subst b. f_equal.
    apply IH; [exact (strictly_sorted_tail a l1 H1)|exact (strictly_sorted_tail a l2 H2)|].
    intros x. split.
    + apply (strictly_sorted_tail_incl a l1 l2 H1). intros y. apply He.
    + apply (strictly_sorted_tail_incl a l2 l1 H2). intros y. apply He.
Qed.

Lemma dedup_sort_ext l1 l2 : (forall x, In x l1 <-> In x l2) -> dedup_sort l1 = dedup_sort l2.
Proof.
  intros H. apply strictly_sorted_ext; try apply dedup_sort_sorted.
  intros x. rewrite !dedup_sort_in. apply H.
Qed.
