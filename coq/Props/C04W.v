(** The wiring model of Store/Wiring.v (tied to the real configuration constructor
    by the sub-checks C01W / C05W / C08W) carries C04's theorem to every store the
    constructor builds.  Statement only. *)
From Coq Require Import List NArith ZArith Bool Arith.
From BBS Require Import Common.Sx Store.Model Store.Wf Store.WfTids Store.Wiring Run.RStore Run.R01W Run.R01WProofs.
From BBS Require Props.C04 Props.StoreCombined Store.P04Mon Store.P10Monitor.
Import ListNotations.

(** for every accepted sane configuration message: C04's monitor (no reuse while
    referenced, no leak at quiescence, buffers released once) is silent on the
    model of the store the constructor builds, for ALL schedules *)
Theorem wired_store_satisfies_C04 : forall inp w,
  wired_world inp = Some w -> wiring_sane (dec_wiring (sx_nth inp 0)) = true -> wf_anc w = true ->
  forall es, P04Mon.mon04_model w es = [].
Proof.
  intros inp w W S A es. apply Props.C04.store_model_satisfies_C04.
  exact (wired_world_wf inp w W S A).
Qed.
Print Assumptions wired_store_satisfies_C04.
