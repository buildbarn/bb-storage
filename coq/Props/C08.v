(** C08 — detected corruption is quarantined: affected and older blocks are
    not served.  Statements only; proofs are in Store/P08*.v.  The object is
    the executable store model Store/Model.v (tied to pkg/blobstore/local by
    the differential harness).  "All schedules" = all event lists [es] (any
    length, any interleaving at the model's step granularity, OCorrupt events
    anywhere, any number); "all states" statements hold in particular in
    every reachable state.  None of the statements needs a well-formedness
    hypothesis on the world. *)
From Coq Require Import List NArith ZArith Bool Arith.
From BBS Require Import Common.Sx Store.Model Store.Wf Store.P08Frame Store.P08Step Store.P08Quarantine
  Store.P08Monitor Run.RStore Run.R08.
Import ListNotations.
Open Scope N_scope.

(** ---- 1. detect_fails_internal ---- *)

(** The detection proper: a read through a validating store whose bytes
    differ from the object's content counts a negative verdict and raises the
    quarantine boundary above the block that was read. *)
Theorem detect_raises_boundary : forall w s o u l bytes s',
  read_validated w s o u l = (false, bytes, s') ->
  bytes <> content w o /\ s_negs s' = S (s_negs s) /\
  s_tbr s' = N.max (s_tbr s) (l_abs l + 1) /\ l_abs l + 1 <= s_tbr s' /\ s_tbr s <= s_tbr s'.
Proof. exact detect_read_validated. Qed.
Print Assumptions detect_raises_boundary.

(** Every step of every operation: if the verdict counter grows, the
    operation's output carries INTERNAL (Done 13 / Missing 13), so it is
    never [Done 0]; the counter grows by at most one; the boundary never
    decreases. *)
Theorem detect_fails_internal : forall w s e s' out,
  step w s e = (s', out) ->
  (s_negs s' = s_negs s \/ (s_negs s' = S (s_negs s) /\ out_internal out)) /\ s_tbr s <= s_tbr s'.
Proof. exact detect_step. Qed.
Print Assumptions detect_fails_internal.

Theorem internal_is_never_ok : forall out, out_internal out -> forall b, out <> Done cOK b.
Proof. exact out_internal_not_ok. Qed.
Print Assumptions internal_is_never_ok.

(** ... and conversely a mismatch IS detected by each reading operation: *)
Theorem detect_fails_internal_get : forall w s tid o uid l r fk s' out,
  thr_get (s_threads s) tid = Some (TGet o uid l r fk) ->
  fst (fst (read_validated w s o uid l)) = false ->
  step w s (OGetConsume tid) = (s', out) ->
  out = Done cInternal [] /\ s_negs s' = S (s_negs s) /\ l_abs l + 1 <= s_tbr s'.
Proof. exact detect_get_consume. Qed.
Print Assumptions detect_fails_internal_get.

Theorem detect_fails_internal_composite_hier : forall w s tid o uid l r fk slices s' out,
  thr_get (s_threads s) tid = Some (TGet o uid l r fk) ->
  fst (fst (read_validated w s o uid l)) = false ->
  step w s (OGfcSlice tid slices) = (s', out) ->
  out = Done cInternal [] /\ s_negs s' = S (s_negs s) /\ l_abs l + 1 <= s_tbr s'.
Proof. exact detect_slice_hier. Qed.
Print Assumptions detect_fails_internal_composite_hier.

Theorem detect_fails_internal_composite_flat : forall w s tid p i uid pl r pk slices s' out,
  thr_get (s_threads s) tid = Some (TGfc p i uid pl r pk) ->
  fst (fst (read_validated w s p uid pl)) = false ->
  step w s (OGfcSlice tid slices) = (s', out) ->
  out = Done cInternal [] /\ s_negs s' = S (s_negs s) /\ l_abs pl + 1 <= s_tbr s' /\ s_index s' = s_index s.
Proof. exact detect_slice_flat. Qed.
Print Assumptions detect_fails_internal_composite_flat.

Theorem detect_fails_internal_find_missing : forall w s ds s' out,
  step w s (OFindMissing ds) = (s', out) -> s_negs s' <> s_negs s ->
  out = Missing cInternal [] /\ s_negs s' = S (s_negs s).
Proof. exact detect_find_missing. Qed.
Print Assumptions detect_fails_internal_find_missing.

(** the FindMissing refresh of one digest: the location the digest resolved
    to failed validation and the boundary now lies above its block *)
Theorem detect_fails_internal_refresh : forall w s o i r s',
  fm_refresh_one w s o i = (r, s') -> s_negs s' <> s_negs s ->
  r = Err cInternal /\ s_negs s' = S (s_negs s) /\
  exists k l, least_specific s (lookup_keys w o i) = Some (k, l) /\ l_abs l + 1 <= s_tbr s'.
Proof. exact detect_fm_refresh_one. Qed.
Print Assumptions detect_fails_internal_refresh.

(** no false alarm: bytes equal to the content are never condemned *)
Theorem no_detection_on_intact_bytes : forall w s o u l,
  read_block s u (l_off l) (l_size l) = content w o -> fst (fst (read_validated w s o u l)) = true.
Proof. exact read_validated_sound. Qed.
Print Assumptions no_detection_on_intact_bytes.

Theorem boundary_monotone_on_schedules : forall w es s, s_tbr s <= s_tbr (exec w s es).
Proof. exact exec_tbr_mono. Qed.
Print Assumptions boundary_monotone_on_schedules.

(** ---- 2. quarantine_hides ---- *)

(** every lookup resolves outside the quarantine *)
Theorem resolved_location_outside_quarantine : forall s k l,
  index_get s k = Some l -> s_tbr s <= l_abs l.
Proof. exact index_get_quarantine. Qed.
Print Assumptions resolved_location_outside_quarantine.

(** On traces: once the boundary has been raised to B+1 (by a detection in
    block B, theorem detect_raises_boundary), no OGetOpen invoked later parks
    a reader on a block with absolute number <= B ... *)
Theorem quarantine_hides : forall w s0 es1 es2 B tid o j s',
  B + 1 <= s_tbr (exec w s0 es1) ->
  step w (exec w s0 (es1 ++ es2)) (OGetOpen tid o j) = (s', Parked) ->
  exists uid l r fk, thr_get (s_threads s') tid = Some (TGet o uid l r fk) /\ B < l_abs l.
Proof. exact quarantine_hides_get. Qed.
Print Assumptions quarantine_hides.

(** ... and no later FindMissing reports a digest present unless one of its
    lookup keys resolves (at invocation) to a location in a block > B. *)
Theorem quarantine_hides_existence : forall w s0 es1 es2 B ds m s' pos o j,
  B + 1 <= s_tbr (exec w s0 es1) ->
  step w (exec w s0 (es1 ++ es2)) (OFindMissing ds) = (s', Missing cOK m) ->
  nth_error ds pos = Some (o, j) -> ~ In pos m ->
  exists k l, In k (lookup_keys w o j) /\ index_get (exec w s0 (es1 ++ es2)) k = Some l /\ B < l_abs l.
Proof. exact quarantine_hides_find_missing. Qed.
Print Assumptions quarantine_hides_existence.

(** an object all of whose stored locations lie below the boundary is NOT_FOUND *)
Theorem quarantined_object_not_found : forall w s tid o j,
  thr_get (s_threads s) tid = None ->
  (forall k l, In k (lookup_keys w o j) -> In (k, l) (s_index s) -> l_abs l < s_tbr s) ->
  step w s (OGetOpen tid o j) = (s, Done cNotFound []).
Proof. exact quarantined_get_not_found. Qed.
Print Assumptions quarantined_object_not_found.

(** ---- 3. newer_unaffected ---- *)
Theorem newer_unaffected : forall w s o u l bytes s',
  read_validated w s o u l = (false, bytes, s') ->
  forall k l0, index_get s k = Some l0 -> l_abs l < l_abs l0 -> index_get s' k = Some l0.
Proof. exact newer_unaffected_read_validated. Qed.
Print Assumptions newer_unaffected.

(** the whole step in which a reader detects the corruption *)
Theorem newer_unaffected_by_failing_read : forall w s tid o uid l r fk s' out,
  thr_get (s_threads s) tid = Some (TGet o uid l r fk) ->
  step w s (OGetConsume tid) = (s', out) -> s_negs s' <> s_negs s ->
  forall k l0, index_get s k = Some l0 -> l_abs l < l_abs l0 -> index_get s' k = Some l0.
Proof. exact newer_unaffected_get_consume. Qed.
Print Assumptions newer_unaffected_by_failing_read.

(** ---- 4. inflight_upload_fails ---- *)
Theorem inflight_upload_fails : forall w s tid o i wr acc err s' out,
  thr_get (s_threads s) tid = Some (TPut o i wr acc) -> wr_abs wr < s_tbr s ->
  step w s (OPutEnd tid err) = (s', out) ->
  (exists code, out = Done code [] /\ code <> 0%Z) /\ s_index s' = s_index s.
Proof. exact P08Quarantine.inflight_upload_fails. Qed.
Print Assumptions inflight_upload_fails.

(** ---- the monitor of Run/R08.v is silent on every run of the model ---- *)
Theorem store_model_satisfies_C08 : forall w es, mon08_model w es = [].
Proof. exact P08Monitor.store_model_satisfies_C08. Qed.
Print Assumptions store_model_satisfies_C08.

Theorem monitor_silent_on_model : forall inp, mon08 inp (run_store inp) = [].
Proof. exact mon08_silent_on_model. Qed.
Print Assumptions monitor_silent_on_model.

(** ---- 5. still_accepts_uploads (partial) ---- *)
(** Full statement (not proved): in every reachable state, OPutStart of an
    object that fits a block parks whenever the allocator can supply a block.
    Proved: in EVERY state (in particular after any number of detections,
    whatever the quarantine boundary), OPutStart on a free thread id of an
    object that fits a block either parks, or is refused with UNAVAILABLE by
    the block-device allocator and then the free list of the resulting state
    is empty (the exact condition: no free region at the moment a block is
    needed, after the quarantine pops), or returns the model's out-of-fuel
    code -1.  Never INTERNAL, never INVALID_ARGUMENT, never -2.  Not covered:
    that -1 does not occur in reachable states (needs the allocator
    accounting of C04: length s_blocks = s_old + s_cur + s_new, s_tbr below
    the top of the list, fuel of the HasSpace loop). *)
Theorem still_accepts_uploads_partial : forall w s tid o i s' out,
  thr_get (s_threads s) tid = None -> osize w o <= c_bs (w_cfg w) ->
  step w s (OPutStart tid o i) = (s', out) ->
  out = Parked \/
  (out = Done cUnavailable [] /\ in_memory (w_cfg w) = false /\ s_free s' = []) \/
  out = Done (-1)%Z [].
Proof. exact put_start_accepts. Qed.
Print Assumptions still_accepts_uploads_partial.

Theorem still_accepts_uploads_in_memory_partial : forall w s tid o i s' out,
  in_memory (w_cfg w) = true ->
  thr_get (s_threads s) tid = None -> osize w o <= c_bs (w_cfg w) ->
  step w s (OPutStart tid o i) = (s', out) ->
  out = Parked \/ out = Done (-1)%Z [].
Proof. exact put_start_accepts_in_memory. Qed.
Print Assumptions still_accepts_uploads_in_memory_partial.

(** ---- non-vacuity: a run with a detection ---- *)
Definition ex_cfg : config :=
  {| c_bs := 16; c_old := 1; c_cur := 1; c_new := 1; c_mutable := false; c_nblocks := 5;
     c_hier := false; c_inst_keys := false; c_validate := true |}.
Definition ex_w : world := {| w_cfg := ex_cfg; w_objs := [[1; 2; 3; 4]]; w_anc := [[0%nat]] |}.
Definition ex_es : list op :=
  [OPutStart 0 0 0; OPutChunk 0 [1; 2; 3; 4]; OPutEnd 0 0%Z;   (* upload into block 0 *)
   OPutStart 6 0 0;                                           (* a second upload in flight into block 0 *)
   OCorrupt 0 0 2; OGetOpen 1 0 0; OGetConsume 1;             (* corruption, detected by a read: INTERNAL *)
   OGetOpen 2 0 0;                                            (* NOT_FOUND *)
   OPutChunk 6 [1; 2; 3; 4]; OPutEnd 6 0%Z;                   (* the in-flight upload fails: INTERNAL *)
   OFindMissing [(0, 0)%nat];                                 (* reported missing *)
   OPutStart 3 0 0; OPutChunk 3 [1; 2; 3; 4]; OPutEnd 3 0%Z;  (* the store still accepts uploads *)
   OGetOpen 7 0 0; OGetConsume 7].                            (* ... and serves them *)
Example ex_run :
  wf_world ex_w = true /\
  snd (run ex_w (init_state ex_cfg) ex_es) =
  [Parked; Parked; Done 0 []; Parked; Done 0 []; Parked; Done 13 []; Done 5 []; Parked; Done 13 [];
   Missing 0 [0%nat]; Parked; Parked; Done 0 []; Parked; Done 0 [1; 2; 3; 4]] /\
  s_tbr (exec ex_w (init_state ex_cfg) ex_es) = 1 /\ s_negs (exec ex_w (init_state ex_cfg) ex_es) = 1%nat.
Proof. vm_compute. repeat split. Qed.
