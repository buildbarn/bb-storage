(** C05 - An object just read or reported present survives old_blocks more
    rotations.  Statements only; proofs are in Store/P05*.v.

    Object of the proofs: the executable model of pkg/blobstore/local in
    Store/Model.v (tied to the Go code by the differential check of C05).
    [s_pushbacks] counts block allocations (successful PushBack calls).

    Summary.
    1. Counting core (both growth policies, initial fill and steady state):
       a listed, non-old, non-quarantined block survives c_old further
       push-backs absent negative integrity verdicts; the bound is tight.
    2. A Get places the object at a non-old location WHEN THE READER IS
       OPENED (or starts a copy into a new block, entered at consumption);
       a single-digest FindMissing places it when the call returns; a
       multi-digest FindMissing places each digest at some moment during the
       call.  The literal statements "after OGetConsume" / "after a
       multi-digest OFindMissing" are REFUTED on the model.
    3. The R05 monitor splits retention by the stamping moment: clause 1
       stamps when the object is placed (reader obtained / start of a
       multi-digest FindMissing / return of a single-digest one), clause 5
       stamps a Get when the reader is consumed, clause 6 a multi-digest
       FindMissing at its return.  PROVED for all schedules: on the model's
       own observations clauses 1, 2, 3 (and 4) are never reported.
       REFUTED on the model (and on the real code: corpus/C05, findings F10,
       F11): clauses 5 and 6.
    4. Idempotence ("immediately repeating the same Get or FindMissing
       causes no further data to be written"), on the model: [wrote]
       (Run/R05.v) says whether a step copied object data into the store,
       read off the allocation cursors of the listed blocks and the pending
       copy of a parked reader; C05's judge compares it with the device
       write count of the implementation on every Get / FindMissing step.
       PROVED, every reachable state, every continuation, no well-formedness
       hypothesis: after a Get that has completed (no copy pending, or the
       pending copy completed by a successful consumption) - resp. after a
       single-digest FindMissing that reported the object present - and as
       long as no block has been allocated since, the same Get-open /
       FindMissing allocates nothing, leaves the medium untouched and parks
       a reader without a pending copy.  The R05 monitor run on the model's
       observations carrying the model's own [wrote] never reports clauses
       2 and 3 (nor 1): what it can report is 4, 5, 6, 7 - and clauses 4
       and 7 ARE reported (witnesses = findings F8, F12).
    Hypotheses of the monitor theorem: fresh thread ids ([wf_tids], as
    generated by the harness) and model integrity (no negative verdict
    before the first injected corruption: the subject of C01, taken as a
    hypothesis here; [model_integrity_from_C01] derives it from C01's
    theorem for well-formed schedules).  [wf_world] is not needed. *)
From Coq Require Import List NArith ZArith Bool Arith.
From BBS Require Import Common.Sx Store.Model Store.Wf Store.WfTids Run.RStore Run.R01 Run.R05.
From BBS Require Import Store.P05Cnt Store.P05Frame Store.P05Ops Store.P05Step Store.P05Surv
                        Store.P05Mon Store.P05Inv Store.P05Main Store.P05Touch Store.P05Wit.
From BBS Require Import Common.SxFactsMA Store.P05WInv Store.P05WRep Store.P05WCor Store.P05WEnd Store.P05WFm Store.P05WFm2
                        Store.P05WMonA Store.P05WMonB Store.P05WMonC Store.P05WWit.
Import ListNotations.

Theorem counters_of_reachable_states : forall w es,
  let s := fst (run w (init_state (w_cfg w)) es) in
  length (s_blocks s) = (s_old s + s_cur s + s_new s)%nat /\
  (s_released s <= s_tbr s)%N /\
  (s_released s + N.of_nat (length (s_blocks s)) = N.of_nat (s_pushbacks s))%N /\
  (s_old s <= c_old (w_cfg w))%nat /\
  (s_negs s = O -> s_tbr s = s_released s).
Proof. exact reachable_counters. Qed.
Print Assumptions counters_of_reachable_states.

Theorem reachable_states_consistent : forall w es,
  kinv (w_cfg w) (proj (fst (run w (init_state (w_cfg w)) es))).
Proof. exact reachable_kinv. Qed.
Print Assumptions reachable_states_consistent.

Theorem counters_are_monotone : forall w s es,
  kinv (w_cfg w) (proj s) ->
  let s' := fst (run w s es) in
  (s_pushbacks s <= s_pushbacks s')%nat /\ (s_negs s <= s_negs s')%nat /\ (s_tbr s <= s_tbr s')%N /\
  (s_released s <= s_released s')%N.
Proof. exact counters_monotone. Qed.
Print Assumptions counters_are_monotone.

(** every step is a finite sequence of the seven atomic counter moves of
    P05Cnt.v; the quarantine mark moves only by [ca_rot_pop] (max with
    released) and [ca_bump] (a negative verdict) *)
Theorem every_step_is_atomic_moves : forall w s e,
  kinv (w_cfg w) (proj s) ->
  creach (w_cfg w) (proj s) (proj (fst (step w s e))) /\ incl (s_index s) (s_index (fst (step w s e))).
Proof. exact step_creach. Qed.
Print Assumptions every_step_is_atomic_moves.

Theorem nonold_block_survives : forall w es0 es T,
  let s := fst (run w (init_state (w_cfg w)) es0) in
  let s' := fst (run w s es) in
  (s_tbr s <= T)%N -> (s_released s + N.of_nat (s_old s) <= T)%N ->
  (T < s_released s + N.of_nat (length (s_blocks s)))%N ->
  s_negs s' = s_negs s -> (s_pushbacks s' - s_pushbacks s <= c_old (w_cfg w))%nat ->
  (s_tbr s' <= T /\ s_released s' <= T /\ T < s_released s' + N.of_nat (length (s_blocks s')))%N.
Proof. exact nonold_block_survives_reachable. Qed.
Print Assumptions nonold_block_survives.

Theorem nonold_entry_keeps_answering : forall w s es k l,
  kinv (w_cfg w) (proj s) ->
  In (k, l) (s_index s) -> loc_valid s l = true -> needs_refresh s l = false ->
  let s' := fst (run w s es) in
  s_negs s' = s_negs s -> (s_pushbacks s' - s_pushbacks s <= c_old (w_cfg w))%nat ->
  index_get s' k <> None.
Proof. exact nonold_entry_survives. Qed.
Print Assumptions nonold_entry_keeps_answering.

Theorem get_places_object_when_opened : forall w s tid o i s1,
  kinv (w_cfg w) (proj s) ->
  step w s (OGetOpen tid o i) = (s1, Parked) ->
  exists u l r f, thr_get (s_threads s1) tid = Some (TGet o u l r f) /\
    match r with
    | None => found_fresh w s1 o i
    | Some wr => (exists k, In k f /\ In k (lookup_keys w o i)) /\
                 (s_released s1 + N.of_nat (s_old s1) <= wr_abs wr)%N /\
                 (wr_abs wr < s_released s1 + N.of_nat (length (s_blocks s1)))%N
    end.
Proof. exact get_open_places_object. Qed.
Print Assumptions get_places_object_when_opened.

Theorem get_consumption_completes_pending_copy : forall w s tid o u l wr f s1 bytes,
  thr_get (s_threads s) tid = Some (TGet o u l (Some wr) f) ->
  (wr_abs wr < s_released s + N.of_nat (length (s_blocks s)))%N ->
  step w s (OGetConsume tid) = (s1, Done cOK bytes) ->
  forall k, In k f -> exists l', index_get s1 k = Some l' /\ (wr_abs wr <= l_abs l')%N.
Proof. exact get_consume_completes_copy. Qed.
Print Assumptions get_consumption_completes_pending_copy.

Theorem single_find_missing_places_object : forall w s o i s1,
  kinv (w_cfg w) (proj s) ->
  step w s (OFindMissing [(o, i)]) = (s1, Missing cOK []) ->
  found_fresh w s1 o i.
Proof. exact find_missing_single_places_object. Qed.
Print Assumptions single_find_missing_places_object.

Theorem multi_find_missing_places_object_during_call : forall w s ds m s1,
  kinv (w_cfg w) (proj s) ->
  step w s (OFindMissing ds) = (s1, Missing cOK m) ->
  forall pos o i, nth_error ds pos = Some (o, i) -> ~ In pos m ->
    exists sm, found_fresh w sm o i /\ (s_pushbacks s <= s_pushbacks sm)%nat /\
               (s_pushbacks sm <= s_pushbacks s1)%nat /\ incl (s_index sm) (s_index s1).
Proof. exact find_missing_multi_places_object. Qed.
Print Assumptions multi_find_missing_places_object_during_call.

(** the literal statements are false on the model
    (touch_places_object_in_non_old_block is refuted): *)
Theorem touch_after_get_consume_refuted :
  let es := put 1 0 ++ [OGetOpen 9 0 0] ++ put 2 1 ++ put 3 2 ++ [OGetConsume 9] in
  let s := fst (run wA (init_state (w_cfg wA)) es) in
  nth 10 (snd (run wA (init_state (w_cfg wA)) es)) Bad = Done cOK (nth 0 objs []) /\
  least_specific s (lookup_keys wA 0 0) = None.
Proof. exact get_consume_literal_refuted. Qed.
Print Assumptions touch_after_get_consume_refuted.

Theorem touch_after_multi_find_missing_refuted :
  let es := put 1 0 ++ put 2 1 ++ put 3 2 ++ [OFindMissing [(0, 0); (1, 0)]%nat] in
  let s := fst (run wB (init_state (w_cfg wB)) es) in
  nth 9 (snd (run wB (init_state (w_cfg wB)) es)) Bad = Missing cOK [] /\
  option_map (needs_refresh s) (index_get s (0, 0)%nat) = Some true.
Proof. exact find_missing_multi_literal_refuted. Qed.
Print Assumptions touch_after_multi_find_missing_refuted.

Theorem monitor_on_model_is_mon05_model : forall inp,
  mon05 inp (run_store inp) = mon05_model (dec_world inp) (dec_ops inp).
Proof. exact mon05_on_model. Qed.
Print Assumptions monitor_on_model_is_mon05_model.

(** clauses 1, 2, 3 (and 4) never fire on the model's own observations, for
    all worlds and all schedules: anything reported is clause 5 or 6 *)
Theorem store_model_satisfies_C05 : forall inp,
  let w := dec_world inp in
  let es := dec_ops inp in
  wf_tids es = true -> model_integrity w es ->
  forall z, In z (mon05 inp (run_store inp)) -> z = 5%Z \/ z = 6%Z.
Proof.
  intros inp w es WT MI z H. rewrite mon05_on_model in H.
  exact (model_satisfies_C05 w es WT (integ_of_model_integrity w es MI) z H).
Qed.
Print Assumptions store_model_satisfies_C05.

(** the same with C01's theorem as the hypothesis *)
Theorem store_model_satisfies_C05_given_C01 : forall inp,
  let w := dec_world inp in
  let es := dec_ops inp in
  C01_integrity_statement w -> wf_ops w [] es = true -> wf_tids es = true ->
  forall z, In z (mon05 inp (run_store inp)) -> z = 5%Z \/ z = 6%Z.
Proof.
  intros inp w es HC WO WT. apply store_model_satisfies_C05; [exact WT|].
  exact (model_integrity_from_C01 w es HC WO WT).
Qed.
Print Assumptions store_model_satisfies_C05_given_C01.

(** without any hypothesis: clauses 2, 3, 4 are never reported, and a
    reported clause 1 is also reported by the early-stamping bookkeeping *)
Theorem store_model_clauses : forall inp z,
  In z (mon05 inp (run_store inp)) ->
  (z = 1%Z /\ mon05_early (dec_world inp) (dec_ops inp) <> []) \/ z = 5%Z \/ z = 6%Z.
Proof. intros inp z H. rewrite mon05_on_model in H. exact (mon05_model_clauses _ _ z H). Qed.
Print Assumptions store_model_clauses.

Theorem early_stamp_bookkeeping_silent : forall w es,
  wf_tids es = true -> model_integrity w es -> mon05_early w es = [].
Proof. intros w es WT MI. exact (early_monitor_silent w es WT (integ_of_model_integrity w es MI)). Qed.
Print Assumptions early_stamp_bookkeeping_silent.

(** clauses 5 and 6 are violated on the model (well-formed, corruption-free
    witnesses; both replay on the real implementation) *)
Theorem clause5_refuted :
  wf_world wA = true /\ wf_ops wA [] esA = true /\ wf_tids esA = true /\
  integ wA (init_state (w_cfg wA)) esA /\
  mon05 (enc_inp wA esA) (run_store (enc_inp wA esA)) = [5%Z].
Proof.
  destruct witnessA_wellformed as (A & B & C & _).
  exact (conj A (conj B (conj C (conj witnessA_integrity P05Wit.clause5_refuted)))).
Qed.
Print Assumptions clause5_refuted.

Theorem clause6_refuted :
  wf_world wB = true /\ wf_ops wB [] esB = true /\ wf_tids esB = true /\
  integ wB (init_state (w_cfg wB)) esB /\
  mon05 (enc_inp wB esB) (run_store (enc_inp wB esB)) = [6%Z].
Proof.
  destruct witnessB_wellformed as (A & B & C & _).
  exact (conj A (conj B (conj C (conj witnessB_integrity P05Wit.clause6_refuted)))).
Qed.
Print Assumptions clause6_refuted.


(** "every index entry lies below the end of the block list; every writer
    held by a parked operation too" and (hierarchical) "every entry under an
    instance key is also stored under the canonical key": the two index
    invariants the idempotence proofs rest on *)
Theorem index_entries_below_end : forall w es, einv (fst (run w (init_state (w_cfg w)) es)).
Proof. intros w es. exact (proj1 (reachable_winv w es)). Qed.
Print Assumptions index_entries_below_end.

Theorem hierarchical_entries_have_canonical_twin : forall w es,
  c_hier (w_cfg w) = true -> hinv (fst (run w (init_state (w_cfg w)) es)).
Proof. intros w es. exact (proj2 (reachable_winv w es)). Qed.
Print Assumptions hierarchical_entries_have_canonical_twin.

(** (a) [get_completed w s1 tid es]: the reader parked in [s1] under [tid]
    carried no pending copy, or [es] contains its successful consumption.
    No hypothesis on [es] otherwise (corruption events included); no
    well-formedness hypothesis. *)
Theorem repeat_get_writes_nothing : forall w es0 tid o i s1 es tid' s3 mo,
  let s := fst (run w (init_state (w_cfg w)) es0) in
  step w s (OGetOpen tid o i) = (s1, Parked) ->
  get_completed w s1 tid es ->
  let s2 := fst (run w s1 es) in
  s_pushbacks s2 = s_pushbacks s1 ->
  step w s2 (OGetOpen tid' o i) = (s3, mo) ->
  wrote w s2 (OGetOpen tid' o i) s3 = false /\ alloc_grew s2 s3 = false /\ s_dev s3 = s_dev s2 /\
  (mo = Parked -> pending_refresh s3 tid' = false).
Proof. exact repeat_get_writes_nothing_all. Qed.
Print Assumptions repeat_get_writes_nothing.

(** ... and the consumption of a reader without a pending copy writes nothing *)
Theorem consume_without_pending_copy_writes_nothing : forall w s tid s',
  pending_refresh s tid = false -> wrote w s (OGetConsume tid) s' = false.
Proof. exact P05WRep.consume_without_pending_copy_writes_nothing. Qed.
Print Assumptions consume_without_pending_copy_writes_nothing.

(** the immediate repeat (the consumption allocates no block, so the
    push-back hypothesis is discharged) *)
Theorem immediate_repeat_get_writes_nothing : forall w es0 tid o i s1 s2 bytes tid' s3 s4 mo,
  let s := fst (run w (init_state (w_cfg w)) es0) in
  step w s (OGetOpen tid o i) = (s1, Parked) ->
  step w s1 (OGetConsume tid) = (s2, Done cOK bytes) ->
  step w s2 (OGetOpen tid' o i) = (s3, Parked) ->
  step w s3 (OGetConsume tid') = (s4, mo) ->
  wrote w s2 (OGetOpen tid' o i) s3 = false /\ wrote w s3 (OGetConsume tid') s4 = false /\
  s_dev s4 = s_dev s2.
Proof. exact P05WCor.immediate_repeat_get_writes_nothing. Qed.
Print Assumptions immediate_repeat_get_writes_nothing.

(** the completion hypothesis cannot be dropped ([es] = [] with a copy
    pending): two Gets of the same old object that are open at the same time
    both copy it (validating factory: the second reader carries a pending
    copy of its own and writes when it is consumed).  Replays identically on
    the implementation: corpus/C05/w2-... *)
Theorem repeat_get_before_completion_copies_again :
  let es := put 1 0 ++ put 2 1 ++ put 3 2 ++ [OGetOpen 9 0 0] in
  let s1 := fst (run wW (init_state (w_cfg wW)) es) in
  let s3 := fst (step wW s1 (OGetOpen 10 0 0)) in
  wf_world wW = true /\ pending_refresh s1 9 = true /\
  snd (step wW s1 (OGetOpen 10 0 0)) = Parked /\
  alloc_grew s1 s3 = true /\ pending_refresh s3 10 = true /\
  wrote wW s3 (OGetConsume 10) (fst (step wW s3 (OGetConsume 10))) = true /\
  snd (step wW s3 (OGetConsume 10)) = Done cOK (nth 0 objs []).
Proof. exact P05WCor.concurrent_gets_both_copy. Qed.
Print Assumptions repeat_get_before_completion_copies_again.

(** (b) single-digest FindMissing that reported the object present *)
Theorem repeat_find_missing_writes_nothing : forall w es0 o i s1 es s3 mo,
  let s := fst (run w (init_state (w_cfg w)) es0) in
  step w s (OFindMissing [(o, i)]) = (s1, Missing cOK []) ->
  let s2 := fst (run w s1 es) in
  s_pushbacks s2 = s_pushbacks s1 ->
  step w s2 (OFindMissing [(o, i)]) = (s3, mo) ->
  wrote w s2 (OFindMissing [(o, i)]) s3 = false /\ s_dev s3 = s_dev s2.
Proof. exact repeat_find_missing_writes_nothing_all. Qed.
Print Assumptions repeat_find_missing_writes_nothing.

Theorem immediate_repeat_find_missing_writes_nothing : forall w es0 o i s1 s2 mo,
  let s := fst (run w (init_state (w_cfg w)) es0) in
  step w s (OFindMissing [(o, i)]) = (s1, Missing cOK []) ->
  step w s1 (OFindMissing [(o, i)]) = (s2, mo) ->
  wrote w s1 (OFindMissing [(o, i)]) s2 = false /\ s_dev s2 = s_dev s1.
Proof. exact P05WCor.immediate_repeat_find_missing_writes_nothing. Qed.
Print Assumptions immediate_repeat_find_missing_writes_nothing.

(** what ANY successful FindMissing (any number of digests) leaves behind:
    every digest settled or not found (then the repeat writes nothing), or
    the digest copied last is found at a location that is not old *)
Theorem find_missing_leaves_settled_or_last_copy_fresh : forall w es0 ds m s1,
  let s := fst (run w (init_state (w_cfg w)) es0) in
  find_missing w s ds = (Ok m, s1) ->
  FMI w s1 ds \/ (exists pos o i, nth_error ds pos = Some (o, i) /\ LSF w s1 o i).
Proof.
  intros w es0 ds m s1 s H. apply (find_missing_leaves w s ds m s1); [|exact H].
  split; [apply reachable_kinv|apply reachable_winv].
Qed.
Print Assumptions find_missing_leaves_settled_or_last_copy_fresh.

(** (c) the monitor on the model's observations carrying the model's own
    write indication *)
Theorem monitor_on_run05_is_mon05w_model : forall inp,
  mon05 inp (run05 inp) = mon05w_model (dec_world inp) (dec_ops inp).
Proof. exact mon05_on_run05. Qed.
Print Assumptions monitor_on_run05_is_mon05w_model.

(** [run05] differs from [run_store] in the last field only: C05's judge
    demands everything the shared store judge demands *)
Theorem run05_agrees_with_run_store : forall inp,
  all2b obs_agree (sx_list (run_store inp)) (sx_list (run05 inp)) = true.
Proof. exact P05WMonA.run05_agrees. Qed.
Print Assumptions run05_agrees_with_run_store.

(** clauses 1, 2 and 3 never fire: whatever is reported is 4, 5, 6 or 7 *)
Theorem store_model_idempotent_C05 : forall inp,
  let w := dec_world inp in
  let es := dec_ops inp in
  wf_tids es = true -> model_integrity w es ->
  forall z, In z (mon05 inp (run05 inp)) -> z = 4%Z \/ z = 5%Z \/ z = 6%Z \/ z = 7%Z.
Proof.
  intros inp w es WT MI z H. rewrite mon05_on_run05 in H.
  exact (model_idempotent_C05 w es WT (integ_of_model_integrity w es MI) z H).
Qed.
Print Assumptions store_model_idempotent_C05.

Theorem store_model_idempotent_C05_given_C01 : forall inp,
  let w := dec_world inp in
  let es := dec_ops inp in
  C01_integrity_statement w -> wf_ops w [] es = true -> wf_tids es = true ->
  forall z, In z (mon05 inp (run05 inp)) -> z = 4%Z \/ z = 5%Z \/ z = 6%Z \/ z = 7%Z.
Proof.
  intros inp w es HC WO WT. apply store_model_idempotent_C05; [exact WT|].
  exact (model_integrity_from_C01 w es HC WO WT).
Qed.
Print Assumptions store_model_idempotent_C05_given_C01.

(** without the integrity hypothesis: clauses 2 and 3 are never reported *)
Theorem store_model_write_clauses : forall inp z,
  wf_tids (dec_ops inp) = true -> In z (mon05 inp (run05 inp)) ->
  (z = 1%Z /\ mon05_early (dec_world inp) (dec_ops inp) <> []) \/ z = 4%Z \/ z = 5%Z \/ z = 6%Z \/ z = 7%Z.
Proof. intros inp z WT H. rewrite mon05_on_run05 in H. exact (mon05w_model_clauses _ _ z WT H). Qed.
Print Assumptions store_model_write_clauses.

(** (d) clauses 4 and 7 are violated on the model (well-formed,
    corruption-free witnesses = findings F8 and F12; both replay on the real
    implementation: corpus/C05/f8-..., f12-...) *)
Theorem clause4_refuted :
  wf_world wF8 = true /\ wf_ops wF8 [] esF8 = true /\ wf_tids esF8 = true /\
  integ wF8 (init_state (w_cfg wF8)) esF8 /\
  mon05 (enc_inp wF8 esF8) (run05 (enc_inp wF8 esF8)) = [4%Z].
Proof.
  destruct witnessF8_wellformed as (A & B & C & _).
  exact (conj A (conj B (conj C (conj witnessF8_integrity P05WWit.clause4_refuted)))).
Qed.
Print Assumptions clause4_refuted.

Theorem clause7_refuted :
  wf_world wF12 = true /\ wf_ops wF12 [] esF12 = true /\ wf_tids esF12 = true /\
  integ wF12 (init_state (w_cfg wF12)) esF12 /\
  mon05 (enc_inp wF12 esF12) (run05 (enc_inp wF12 esF12)) = [7%Z].
Proof.
  destruct witnessF12_wellformed as (A & B & C & _).
  exact (conj A (conj B (conj C (conj witnessF12_integrity P05WWit.clause7_refuted)))).
Qed.
Print Assumptions clause7_refuted.

Example C05_bound_is_tight :
  let c := {| c_bs := 4; c_old := 1; c_cur := 0; c_new := 1; c_mutable := false; c_nblocks := 0;
              c_hier := false; c_inst_keys := false; c_validate := false |} in
  let a := {| k_len := 2; k_old := 1; k_cur := 0; k_new := 1; k_rel := 0; k_tbr := 0; k_pb := 2; k_negs := 0 |} in
  exists b, creach c a b /\ k_negs b = k_negs a /\ (k_pb b - k_pb a = S (c_old c))%nat /\ (1 < k_tbr b)%N.
Proof. exact bound_is_tight. Qed.

Example C05_monitor_theorem_non_vacuous :
  wf_world wB = true /\ wf_ops wB [] esD = true /\ wf_tids esD = true /\
  mon05 (enc_inp wB esD) (run_store (enc_inp wB esD)) = [] /\
  map (fun x => match snd (snd x) with Done c _ => c | Missing c _ => c | _ => (-9)%Z end) (run_x wB esD)
  = [-9; -9; 0; -9; -9; 0; -9; -9; 0; 0; -9; 0; -9; -9; 0; -9; -9; 0; 5; -9; 0]%Z
  /\ s_pushbacks (fst (run wB (init_state (w_cfg wB)) esD)) = 8%nat.
Proof. exact monitor_theorem_non_vacuous. Qed.

Example C05_reused_thread_id_confuses_monitor :
  wf_world wC = true /\ wf_tids esC = false /\
  mon05 (enc_inp wC esC) (run_store (enc_inp wC esC)) = [5%Z] /\ mon05_early wC esC = [].
Proof. exact reused_thread_id_confuses_monitor. Qed.

(** the idempotence theorems are not vacuous: a first Get / FindMissing that
    DOES write (foreground copy; copy in lock step with the consumer), and a
    repeat that does not *)
Example C05_repeat_get_non_vacuous_raw :
  wf_world wB = true /\ wf_ops wB [] esR = true /\ wf_tids esR = true /\
  map (fun x => match x with (e, (s0, s1, mo)) => (out_ok mo, wrote wB s0 e s1) end) (skipn 9 (run_x wB esR))
  = [(false, true); (true, false); (false, false); (true, false)].
Proof. exact repeat_get_non_vacuous_raw. Qed.
Example C05_repeat_get_non_vacuous_cas :
  wf_world wV = true /\ wf_ops wV [] esR = true /\ wf_tids esR = true /\
  map (fun x => match x with (e, (s0, s1, mo)) => (out_ok mo, wrote wV s0 e s1) end) (skipn 9 (run_x wV esR))
  = [(false, false); (true, true); (false, false); (true, false)].
Proof. exact repeat_get_non_vacuous_cas. Qed.
Example C05_repeat_find_missing_non_vacuous :
  wf_world wB = true /\ wf_ops wB [] esFM = true /\ wf_tids esFM = true /\
  map (fun x => match x with (e, (s0, s1, mo)) => (mo, wrote wB s0 e s1) end) (skipn 9 (run_x wB esFM))
  = [(Missing cOK [], true); (Missing cOK [], false)].
Proof. exact repeat_find_missing_non_vacuous. Qed.
