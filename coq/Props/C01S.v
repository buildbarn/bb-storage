(** C01S (sub-check of C01) — the sector-granular writer of the block-device backed
    block allocator (HasSpace/Put, blockDeviceBackedBlockWriter.Write/flush, sharedSector,
    NewBlockAtLocation).  Each theorem is read off an invariant of the transition system that
    Store/SectorWriter*.v proves along every run.

    The theorems quantify over every sector size >= 1, block size, device, initial cursor
    without shared sector (NewBlock / NewBlockAtLocation), and every event list accepted by
    [run]: allocations (guarded by HasSpace, as the store does), Write/flush/abandon steps
    of any writer in any interleaving. *)
From BBS Require Import Common.Sx Store.SectorWriter Store.SectorWriterProofs Store.SectorWriterSpec
  Store.SectorWriterCommute Store.SectorWriterInv Store.SectorWriterAccum Store.SectorWriterCommute2
  Store.SectorWriterDevice Run.R01S Run.R01SMonBase Run.R01SMonInv Run.R01SMon.

(** Byte ranges handed out by successive allocations are in order and pairwise disjoint,
    start at or above the initial cursor, end within the block; HasSpace is exactly "fits". *)
Theorem allocations_disjoint : forall c dev b0 tr s,
  1 <= c_sector c -> cursor_wf c b0 ->
  run c (init_state dev b0) tr = Some s ->
  (forall i j ti tj, i < j -> nth_error (st_threads s) i = Some ti -> nth_error (st_threads s) j = Some tj ->
     t_start ti + t_size ti <= t_start tj) /\
  (forall i ti, nth_error (st_threads s) i = Some ti ->
     cpos c b0 <= t_start ti /\ t_start ti + t_size ti <= c_spb c * c_sector c) /\
  (forall b size, has_space c b size = true <-> cpos c b + size <= c_spb c * c_sector c).
Proof.
  intros c dev b0 tr s HS Hwf Hr. pose proof (run_ainv c dev b0 tr s HS Hwf Hr) as (Hw & Hch & He & Hin).
  split; [|split].
  - intros i j ti tj Hij Hi Hj. pose proof (chained_order _ _ _ _ _ _ Hch Hij Hi Hj). lia.
  - intros i ti Hi. pose proof (chained_bounds _ _ _ _ Hch Hi).
    assert (Hne : st_threads s <> []) by (intros E; rewrite E in Hi; destruct i; discriminate).
    specialize (Hin Hne). lia.
  - intros. apply has_space_fits.
Qed.
Print Assumptions allocations_disjoint.

(** NewBlockAtLocation(_, r): every later allocation starts at or above r, in fact at or
    above r rounded up to a sector boundary, so no sector holding restored data is rewritten
    (together with [writer_writes_only_own_sectors]). *)
Theorem restored_offset_rounds_up : forall c dev r tr s i ti,
  1 <= c_sector c ->
  run c (init_state dev (new_block_at c r)) tr = Some s ->
  nth_error (st_threads s) i = Some ti ->
  r <= t_start ti /\
  (exists m, cpos c (new_block_at c r) = m * c_sector c /\ m * c_sector c <= t_start ti).
Proof.
  intros c dev r tr s i ti HS Hr Hi.
  destruct (allocations_disjoint c dev _ tr s HS (new_block_at_wf c r) Hr) as (_ & H & _).
  destruct (H _ _ Hi) as [H1 _]. pose proof (new_block_at_pos c r HS) as [H2 H3].
  split; [lia|]. exists (b_wos (new_block_at c r)). unfold cpos in *. cbn in *. lia.
Qed.
Print Assumptions restored_offset_rounds_up.

(** Every device write of writer k lies within the sectors overlapping its byte range
    [t_start, t_start + t_size) (an empty range inside a sector counts as touching that sector). *)
Theorem writer_writes_only_own_sectors : forall c dev b0 tr s e s' log k t,
  1 <= c_sector c -> b_shared b0 = None ->
  run c (init_state dev b0) tr = Some s ->
  step c s e = Some (s', log) -> ev_thread e = Some k -> nth_error (st_threads s) k = Some t ->
  Forall (fun w => (c_base c + t_start t / c_sector c) * c_sector c <= fst w /\
                   fst w + length (snd w) <=
                   c_base c * c_sector c + (t_start t + t_size t + c_sector c - 1) / c_sector c * c_sector c) log.
Proof.
  intros c dev b0 tr s e s' log k t HS Hb Hr Hstep Hev Hk.
  exact (proj2 (sinv_writer_step c HS _ s e s' log k t (run_sinv c dev b0 tr s HS Hb Hr) Hstep Hev Hk)).
Qed.
Print Assumptions writer_writes_only_own_sectors.

(** Steps of two different writers that touch no common shared-sector image and whose device
    writes hit disjoint byte ranges commute (same final state, same device writes per step). *)
Theorem private_write_commutes : forall c s ea eb ka kb ta tb sa la sb lb,
  ev_thread ea = Some ka -> ev_thread eb = Some kb -> ka <> kb ->
  nth_error (st_threads s) ka = Some ta -> nth_error (st_threads s) kb = Some tb ->
  (forall i, In i (ids_of (t_w ta)) -> ~ In i (ids_of (t_w tb))) ->
  step c s ea = Some (sa, la) -> step c s eb = Some (sb, lb) ->
  disjoint_writes la lb ->
  exists sab, step c sa eb = Some (sab, lb) /\ step c sb ea = Some (sab, la).
Proof. exact private_write_commutes_gen. Qed.
Print Assumptions private_write_commutes.

(** In particular: steps of two different writers whose sector spans (the sectors overlapping
    their byte ranges) are disjoint commute, in every reachable state. *)
Theorem private_write_commutes_disjoint_sectors : forall c dev b0 tr s ea eb ka kb ta tb sa la sb lb,
  1 <= c_sector c -> b_shared b0 = None -> run c (init_state dev b0) tr = Some s ->
  ev_thread ea = Some ka -> ev_thread eb = Some kb -> ka <> kb ->
  nth_error (st_threads s) ka = Some ta -> nth_error (st_threads s) kb = Some tb ->
  (span_hi c ta <= span_lo c tb \/ span_hi c tb <= span_lo c ta) ->
  step c s ea = Some (sa, la) -> step c s eb = Some (sb, lb) ->
  exists sab, step c sa eb = Some (sab, lb) /\ step c sb ea = Some (sab, la).
Proof.
  intros c dev b0 tr s ea eb ka kb ta tb sa la sb lb HS Hb Hr Hea Heb Hne Hka Hkb Hdis Hsa Hsb.
  pose proof (run_sinv c dev b0 tr s HS Hb Hr) as Hinv.
  destruct (sinv_writer_step c HS _ s ea sa la ka ta Hinv Hsa Hea Hka) as [_ Hla].
  destruct (sinv_writer_step c HS _ s eb sb lb kb tb Hinv Hsb Heb Hkb) as [_ Hlb].
  destruct Hinv as (_ & _ & Ht).
  pose proof (Forall_nth_error _ _ _ _ Ht Hka) as Hta. pose proof (Forall_nth_error _ _ _ _ Ht Hkb) as Htb.
  eapply private_write_commutes; eauto.
  - intros i Hia Hib. pose proof (ids_in_span c _ _ _ HS Hta Hia). pose proof (ids_in_span c _ _ _ HS Htb Hib). lia.
  - intros w1 w2 H1 H2. rewrite Forall_forall in Hla, Hlb.
    specialize (Hla _ H1). specialize (Hlb _ H2). unfold in_span in *. lia.
Qed.
Print Assumptions private_write_commutes_disjoint_sectors.

(** A shared-sector image contains, for every writer touching that sector, the bytes it has
    copied so far ([copied]: bytes of its first, shared sector as soon as they were passed to
    Write; bytes of its last sector once it has flushed) — whatever the other writers of that
    sector did in between.  Since [flush] and the completion of the first sector write the image
    itself ([flush_writes_image], [write_first_writes_image]), every device write of a shared
    sector re-writes all bytes of the writers that already flushed. *)
Theorem shared_sector_accumulates : forall c dev b0 tr s,
  1 <= c_sector c -> b_shared b0 = None ->
  run c (init_state dev b0) tr = Some s ->
  forall id j t pos, id < length (st_images s) -> nth_error (st_threads s) j = Some t ->
    t_start t <= pos < t_start t + t_size t ->
    pos / c_sector c = im_sec (nth id (st_images s) dimg) ->
    copied c t pos ->
    nth (pos mod c_sector c) (img_data (st_images s) id) 0%Z = nth (pos - t_start t) (t_data t) 0%Z.
Proof. intros c dev b0 tr s HS Hb Hr. exact (proj2 (run_ainv2 c dev b0 tr s HS Hb Hr)). Qed.
Print Assumptions shared_sector_accumulates.

Theorem shared_sector_writes_carry_image :
  (forall c images w id, w_last w = Some id -> id < length images ->
     snd (flush c images w) =
     [(w_off w * length (img_data (fst (flush c images w)) id), img_data (fst (flush c images w)) id)]) /\
  (forall c images w p id,
     w_first w = Some id -> id < length images -> length (img_data images id) = c_sector c ->
     w_firstoff w < c_sector c -> c_sector c <= w_firstoff w + length p ->
     exists rest, snd (write c images w p) =
       (w_off w * c_sector c, img_data (fst (fst (write c images w p))) id) :: rest).
Proof. split; [exact flush_writes_image|exact write_first_writes_image]. Qed.
Print Assumptions shared_sector_writes_carry_image.

(** Ingredient: every byte of a flushed writer that lies in its shared first sector or in its
    last sector is in the image of that sector, in every later state. *)
Theorem completed_writer_data_in_images : forall c dev b0 tr s id k t pos,
  1 <= c_sector c -> b_shared b0 = None ->
  run c (init_state dev b0) tr = Some s ->
  nth_error (st_threads s) k = Some t -> t_status t = Flushed ->
  id < length (st_images s) -> t_start t <= pos < t_start t + t_size t ->
  pos / c_sector c = im_sec (nth id (st_images s) dimg) ->
  (pos / c_sector c = t_start t / c_sector c /\ t_first0 t <> None \/
   pos / c_sector c = (t_start t + t_size t) / c_sector c) ->
  nth (pos mod c_sector c) (img_data (st_images s) id) 0%Z = nth (pos - t_start t) (t_data t) 0%Z.
Proof.
  intros c dev b0 tr s id k t pos HS Hb Hr Hk Hfl Hid Hrange Hsec Hwhere.
  pose proof (Forall_nth_error _ _ _ _ (run_flinv c dev b0 tr s Hr) Hk Hfl) as Hfull.
  apply (shared_sector_accumulates c dev b0 tr s HS Hb Hr id k t pos Hid Hk Hrange Hsec).
  (* [copied]: by its first clause if the byte lies in a shared first sector, else by the second *)
  unfold copied, t_fs, t_end.
  destruct (Nat.eq_dec (pos / c_sector c) (t_start t / c_sector c)) as [E|E].
  - destruct (t_first0 t) eqn:F0.
    + left. repeat split; try congruence. lia.
    + right. repeat split; auto; try tauto; destruct Hwhere as [[_ ?]|?]; congruence.
  - right. repeat split; auto; try tauto; destruct Hwhere as [[? _]|?]; congruence.
Qed.
Print Assumptions completed_writer_data_in_images.

(** The property itself.  Once writer k has been given all [t_size] bytes of its allocation
    and has flushed (the guard of [EFlush]), the device bytes of its byte range equal its data.
    [tr] is an arbitrary accepted event list, so the state [s] is any state after the flush:
    the statement includes every continuation by other writers — active ones, abandoned ones,
    and ones allocated later that start in the same sector.  (The device must contain the
    block: [WriteAt] is modelled for in-range writes only.) *)
Theorem completed_writer_data_on_device : forall c dev b0 tr s k t,
  1 <= c_sector c -> b_shared b0 = None ->
  (c_base c + c_spb c) * c_sector c <= length dev ->
  run c (init_state dev b0) tr = Some s ->
  nth_error (st_threads s) k = Some t -> t_status t = Flushed ->
  forall i, i < t_size t ->
    nth (c_base c * c_sector c + t_start t + i) (st_dev s) 0%Z = nth i (t_data t) 0%Z.
Proof.
  intros c dev b0 tr s k t HS Hb Hlen Hr Hk Hfl i Hi.
  destruct (run_inv3 c dev b0 tr s HS Hb Hlen Hr) as (_ & _ & Hd & _).
  specialize (Hd k t (t_start t + i) Hk ltac:(unfold t_end; lia) (or_introl Hfl) I).
  rewrite Nat.add_assoc in Hd. rewrite Hd. f_equal. lia.
Qed.
Print Assumptions completed_writer_data_on_device.

(** The continuation made explicit: from any reachable state in which writer k is flushed, any
    further event list leaves writer k's record untouched and every device byte of its range
    unchanged (and equal to its data). *)
Theorem completed_writer_data_stays_on_device : forall c dev b0 tr s k t tr2 s2,
  1 <= c_sector c -> b_shared b0 = None ->
  (c_base c + c_spb c) * c_sector c <= length dev ->
  run c (init_state dev b0) tr = Some s ->
  nth_error (st_threads s) k = Some t -> t_status t = Flushed ->
  run c s tr2 = Some s2 ->
  nth_error (st_threads s2) k = Some t /\
  forall i, i < t_size t ->
    nth (c_base c * c_sector c + t_start t + i) (st_dev s2) 0%Z = nth i (t_data t) 0%Z /\
    nth (c_base c * c_sector c + t_start t + i) (st_dev s2) 0%Z =
    nth (c_base c * c_sector c + t_start t + i) (st_dev s) 0%Z.
Proof.
  intros c dev b0 tr s k t tr2 s2 HS Hb Hlen Hr Hk Hfl Hr2.
  pose proof (run_invariant c (fun s => nth_error (st_threads s) k = Some t)
                (fun s e s' l H Hs => flushed_stable_step c s e s' l k t Hs H Hfl) tr2 _ _ Hk Hr2) as Hk2.
  split; [exact Hk2|]. intros i Hi.
  assert (Hr12 : run c (init_state dev b0) (tr ++ tr2) = Some s2) by (rewrite run_app, Hr; exact Hr2).
  pose proof (completed_writer_data_on_device c dev b0 _ _ k t HS Hb Hlen Hr12 Hk2 Hfl i Hi) as E2.
  pose proof (completed_writer_data_on_device c dev b0 _ _ k t HS Hb Hlen Hr Hk Hfl i Hi) as E1.
  split; [exact E2|congruence].
Qed.
Print Assumptions completed_writer_data_stays_on_device.

(** a flushed writer has been given all its bytes (so "its data" above is all of it) *)
Theorem flushed_writer_has_all_bytes : forall c dev b0 tr s k t,
  run c (init_state dev b0) tr = Some s ->
  nth_error (st_threads s) k = Some t -> t_status t = Flushed -> length (t_data t) = t_size t.
Proof.
  intros c dev b0 tr s k t Hr Hk. exact (Forall_nth_error _ _ _ _ (run_flinv c dev b0 tr s Hr) Hk).
Qed.
Print Assumptions flushed_writer_has_all_bytes.

(** Non-vacuity: two writers sharing a sector (sector size 4), interleaved, both complete;
    three writers in one sector, the middle one abandoned; a restored block. *)
Example shared_sector_example :
  let c := {| c_sector := 4; c_spb := 2; c_base := 0 |} in
  option_map st_dev
    (run c (init_state (repeat 9%Z 8) new_block)
       [EAlloc 3; EAlloc 3; EWrite 1 [4;5]%Z; EWrite 0 [1;2;3]%Z; EWrite 1 [6]%Z; EFlush 1; EFlush 0])
  = Some [1;2;3;4;5;6;0;0]%Z.
Proof. vm_compute. reflexivity. Qed.

Example abandoned_neighbour_example :
  let c := {| c_sector := 4; c_spb := 1; c_base := 1 |} in
  option_map st_dev
    (run c (init_state (repeat 9%Z 12) new_block)
       [EAlloc 1; EAlloc 1; EAlloc 2; EWrite 2 [7;8]%Z; EFlush 2; EAbandon 1; EWrite 0 [5]%Z; EFlush 0])
  = Some [9;9;9;9; 5;0;7;8; 9;9;9;9]%Z.
Proof. vm_compute. reflexivity. Qed.

Example restored_example :
  let c := {| c_sector := 4; c_spb := 3; c_base := 0 |} in
  option_map (fun s => (st_dev s, map t_start (st_threads s)))
    (run c (init_state (repeat 9%Z 12) (new_block_at c 5)) [EAlloc 2; EWrite 0 [1;2]%Z; EFlush 0])
  = Some ([9;9;9;9; 9;9;9;9; 1;2;0;0]%Z, [8]).
Proof. vm_compute. reflexivity. Qed.

(** a writer allocated AFTER writer 0 has flushed starts in writer 0's last sector and
    completes that sector: writer 0's bytes are re-written from the shared image *)
Example late_neighbour_example :
  let c := {| c_sector := 4; c_spb := 2; c_base := 0 |} in
  option_map st_dev
    (run c (init_state (repeat 9%Z 8) new_block)
       [EAlloc 3; EWrite 0 [1;2;3]%Z; EFlush 0; EAlloc 3; EWrite 1 [4;5]%Z; EWrite 1 [6]%Z; EFlush 1])
  = Some [1;2;3;4;5;6;0;0]%Z.
Proof. vm_compute. reflexivity. Qed.

(** The monitor is silent on the model's own run: for EVERY input whose sector size is >= 1
    (the only domain restriction; the harness accepts sector sizes 1..64 only), none of the
    monitor's five clauses fires on [run01S inp].  So the model satisfies the property as the
    monitor states it, and the monitor cannot raise a false alarm on an implementation whose
    observation agrees with the model.  Proof: induction over the event list with a joint
    invariant of the sector-writer state, the validating chunk readers and the monitor's
    bookkeeping (Run/R01SMon*.v), on top of the theorems above. *)
Theorem mon01S_silent_on_model : forall inp, dom01S inp = true -> mon01S inp (run01S inp) = [].
Proof. exact mon01S_silent_on_model_proof. Qed.
Print Assumptions mon01S_silent_on_model.

(** the domain, spelled out *)
Theorem dom01S_spec : forall inp, dom01S inp = true <-> 1 <= sx_nat (sx_nth inp 0).
Proof. intros inp. apply Nat.leb_le. Qed.
Print Assumptions dom01S_spec.

(** clause by clause (clause numbers as in Run/R01S.v) *)
Theorem mon01S_clauses_silent_on_model : forall inp, dom01S inp = true ->
  ~ In 1%Z (mon01S inp (run01S inp)) /\ ~ In 2%Z (mon01S inp (run01S inp)) /\
  ~ In 3%Z (mon01S inp (run01S inp)) /\ ~ In 4%Z (mon01S inp (run01S inp)) /\
  ~ In 5%Z (mon01S inp (run01S inp)).
Proof.
  intros inp H. split; [|split; [|split; [|split]]]; apply clause_silent_on_model; exact H.
Qed.
Print Assumptions mon01S_clauses_silent_on_model.

(** Non-vacuity: an input in the domain — restored block, three writers in flight, two of them
    sharing a sector and completing out of order, one abandoned, events on dead and unknown
    writers — on which the monitor is silent and the block holds the data; and necessity of the
    domain: with sector size 0 clause 5 fires on the model's run. *)
Example dom01S_nonvacuous :
  dom01S Ex.good = true /\ mon01S Ex.good (run01S Ex.good) = [] /\
  sx_nth (run01S Ex.good) 1 = of_Zs ([9;9;9;9;9;9;9;9;9;9;9;9] ++ [9;9;9;9;1;2;3;4;5;6;0;0] ++ [9;9;9;9;9;9;9;9;9;9;9;9])%Z.
Proof. exact dom01S_example. Qed.

Example dom01S_is_needed :
  let bad := Ex.inp 0 2 3 7 [Ex.al 0] in
  dom01S bad = false /\ mon01S bad (run01S bad) = [5%Z].
Proof. exact dom01S_needed. Qed.
