(** C04A — the allocator-accounting clause of C04: "a region of the block
    device is not handed out while a block, reader or writer obtained earlier
    on it is still live, and capacity is neither lost nor invented."

    Statements only; model Alloc/BDA.v (the free list and use counts of
    block_device_backed_block_allocator.go exactly as the code keeps them:
    initial order, NewBlock takes the front, Release appends at use count 0,
    NewBlockAtLocation swap-removes), proofs Alloc/BDAProofs.v, BDALive.v,
    BDAMon.v, monitor Run/R04A.v.  All theorems quantify over every geometry
    ([wf_cfg]: sector size and sectors per block positive; any number of
    regions) and EVERY sequence of calls [ops] (NewBlock, NewBlockAtLocation
    with any location and write offset, Release by the owner, Get, HasSpace/Put,
    closing readers / running writers, in any order and interleaving).
    [reach c ops] is the state after [ops] from the freshly constructed
    allocator; [live_offs a] are the regions of blocks with a positive use
    count; [proto_ok] = the caller releases each block once and does not
    Get/Put on a block it has released. *)
From Coq Require Import List ZArith Bool Permutation.
From BBS Require Import Common.Sx Alloc.BDA Alloc.BDAProofs Alloc.BDALive Alloc.BDAMon Run.R04A.
Import ListNotations.
Open Scope Z_scope.

(** The invariant: free list and regions in use are disjoint, duplicate-free,
    and together exactly the regions of the device — after ANY calls
    (including callers that break the protocol, up to a panic). *)
Theorem allocator_accounting_invariant : forall c ops, wf_cfg c ->
  let a := reach c ops in
  NoDup (a_free a ++ live_offs a) /\ Permutation (a_free a ++ live_offs a) (regions c).
Proof. intros c ops Hc. exact (conj (inv_NoDup c _ Hc (reach_inv c ops)) (proj1 (reach_inv c ops))). Qed.
Print Assumptions allocator_accounting_invariant.

(** For callers that keep the protocol no call panics and every use count is
    exactly 1 (until the owner's Release) + the readers / writers not yet
    finished: a region is "in use" precisely while a handle on it is live. *)
Theorem use_counts_exact : forall c ops, wf_cfg c -> proto_ok c (init_a c) ops = true ->
  let a := reach c ops in
  panicked (snd (exec c (init_a c) ops)) = false /\
  forall h b, nth_error (a_blks a) h = Some b ->
    b_use b = (if b_rel b then 0 else 1) + Z.of_nat (count_open h (a_pins a)).
Proof. intros c ops _ Hp. exact (proto_use_exact c _ ops (inv_init c) (inv2_init c) Hp). Qed.
Print Assumptions use_counts_exact.

(** Clause 1: whatever call hands out a block, its region is a region of the
    device on which no block has a positive use count. *)
Theorem region_not_handed_out_while_in_use : forall c ops o a' x, wf_cfg c ->
  step c (reach c ops) o = (a', RHanded x) ->
  In x (regions c) /\ ~ In x (live_offs (reach c ops)).
Proof. intros c ops o a' x Hc. exact (handed_not_live c _ o a' x Hc (reach_inv c ops)). Qed.
Print Assumptions region_not_handed_out_while_in_use.

(** ... in the monitor's vocabulary: for a protocol-keeping caller, every
    earlier handle on the region handed out is dead (released by its owner, no
    unfinished reader / writer). *)
Theorem region_not_handed_out_while_handle_live : forall c ops o a' x h b, wf_cfg c ->
  proto_ok c (init_a c) ops = true ->
  step c (reach c ops) o = (a', RHanded x) ->
  nth_error (a_blks (reach c ops)) h = Some b -> b_off b = x ->
  b_rel b = true /\ count_open h (a_pins (reach c ops)) = O.
Proof.
  intros c ops o a' x h b Hc Hp.
  exact (handed_handles_dead c _ o a' x h b Hc (reach_inv c ops) (reach_inv2 c ops Hp)).
Qed.
Print Assumptions region_not_handed_out_while_handle_live.

(** Clause 2: NewBlock reports Unavailable only when every region is in use;
    if some region is not in use it hands one out. *)
Theorem unavailable_only_when_all_regions_in_use : forall c ops, wf_cfg c ->
  let a := reach c ops in
  (snd (step c a ONew) = RUnavail -> Permutation (live_offs a) (regions c))
  /\ ((exists x, In x (regions c) /\ ~ In x (live_offs a)) ->
      exists y, snd (step c a ONew) = RHanded y /\ ~ In y (live_offs a)).
Proof. intros c ops Hc. exact (new_block_cases c _ Hc (reach_inv c ops)). Qed.
Print Assumptions unavailable_only_when_all_regions_in_use.

(** Clause 4: NewBlockAtLocation succeeds iff the location is (offset, size) of
    a region that is not in use, and then hands out that region. *)
Theorem new_block_at_location_iff_region_free : forall c ops off size wo, wf_cfg c ->
  let a := reach c ops in
  ((exists x, snd (step c a (OAt off size wo)) = RHanded x)
   <-> (exists x, In x (regions c) /\ ~ In x (live_offs a)
                  /\ x * c_sector c = off /\ c_spb c * c_sector c = size))
  /\ (forall x, snd (step c a (OAt off size wo)) = RHanded x -> x * c_sector c = off).
Proof.
  intros c ops off size wo Hc a.
  split; [exact (at_location_iff c a off size wo Hc (reach_inv c ops)) | exact (at_location_region c a off size wo)].
Qed.
Print Assumptions new_block_at_location_iff_region_free.

(** Clause 3, liveness: at any state a protocol-keeping caller can reach, for
    any block not yet released: once the owner releases it and its open
    readers / writers are finished ([ext], no other call needed, nothing
    panics) its region is in the free list, and NewBlock() calls hand it out
    (the drain: at most [c_n c] calls). *)
Theorem released_region_becomes_allocatable : forall c ops h b, wf_cfg c ->
  proto_ok c (init_a c) ops = true ->
  let a := reach c ops in
  nth_error (a_blks a) h = Some b -> b_rel b = false ->
  let ext := ORel h :: map OFin (open_idx h 0 (a_pins a)) in
  let a' := fst (exec c a ext) in
  panicked (snd (exec c a ext)) = false
  /\ In (b_off b) (a_free a')
  /\ In (RHanded (b_off b)) (snd (drain c (S (c_n c)) a')).
Proof.
  intros c ops h b _ Hp. exact (release_liveness c _ h b (reach_inv c ops) (reach_inv2 c ops Hp)).
Qed.
Print Assumptions released_region_becomes_allocatable.

(** The monitor of Run/R04A.v (clauses 1-6) is silent on the model's
    observations: every input (any geometry, both allocators, any calls). *)
Theorem mon04A_silent_on_model : forall inp, mon04A inp (run04A inp) = [].
Proof. exact mon04A_silent. Qed.
Print Assumptions mon04A_silent_on_model.

(** The in-memory allocator has no regions, no free list and no use counts:
    NewBlock always succeeds, NewBlockAtLocation always fails. *)
Theorem in_memory_allocator_calls : forall bs a,
  snd (step_mem bs a ONew) = RMem
  /\ forall off size wo, snd (step_mem bs a (OAt off size wo)) = RAtFail.
Proof. split; reflexivity. Qed.
Print Assumptions in_memory_allocator_calls.

(** non-vacuity *)
Definition exc : acfg := mkCfg 4 2 3.

(** a restart: blocks restored at regions 2 and 0 (swap-remove reorders the
    free list), a bad location refused, then growth, a release while a reader
    is open, Unavailable while it is pinned, and the region's return. *)
Definition exops : list op :=
  [OAt 16 8 5; OAt 0 8 0; OAt 16 8 0; OAt 4 8 0; ONew; ONew;
   OGet 0; ORel 0; ONew; OFin 0; ONew].

Example ex_proto : proto_ok exc (init_a exc) exops = true.
Proof. reflexivity. Qed.

Example ex_run :
  snd (exec exc (init_a exc) exops)
  = [RHanded 4; RHanded 0; RAtFail; RAtFail; RHanded 2; RUnavail;
     RGot; RRel; RUnavail; RFin 1 0; RHanded 4].
Proof. reflexivity. Qed.

(** the swap-remove really reorders: restoring region 0 of 4 leaves [3;1;2] *)
Example ex_swap_remove :
  a_free (reach (mkCfg 1 1 4) [OAt 0 1 0]) = [3; 1; 2].
Proof. reflexivity. Qed.

Example ex_liveness_hypotheses :
  let a := reach exc [ONew; OGet 0; OPut 0 3] in
  exists b, nth_error (a_blks a) 0 = Some b /\ b_rel b = false
            /\ open_idx 0 0 (a_pins a) = [0; 1]%nat /\ b_use b = 3.
Proof. eexists. repeat split. Qed.

(** what the seeded change C04-c produces (one region, restored, then the
    drain hands the same region out again) is rejected by clause 1 *)
Example ex_monitor_rejects_duplicate_handout :
  mon04A (L [L [A 0; A 16; A 3; A 1]; L [L [A 1; A 0; A 48; A 0]]])
         (L [L [L [A 1; A 0; A 48; A 0]]; L [L [A 1; A 0; A 48; A 0]; L [A 0; A 14]]; L [A 2; A 0; A 1]])
  = [1].
Proof. reflexivity. Qed.

(** Unavailable although a region has no live handle: clause 2; a region
    missing from the drain: clause 3; a free location refused: clause 4 *)
Example ex_monitor_rejects_premature_unavailable :
  mon04A (L [L [A 0; A 4; A 1; A 2]; L [L [A 0]; L [A 0]]])
         (L [L [L [A 1; A 0; A 4; A 0]; L [A 0; A 14]]; L [L [A 1; A 4; A 4; A 4]; L [A 0; A 14]]; L [A 2; A 0; A 1]])
  = [2].
Proof. reflexivity. Qed.

Example ex_monitor_rejects_lost_capacity :
  mon04A (L [L [A 0; A 4; A 1; A 2]; L [L [A 0]; L [A 2; A 0]]])
         (L [L [L [A 1; A 0; A 4; A 0]; L [A 2]]; L [L [A 1; A 4; A 4; A 4]; L [A 0; A 14]]; L [A 2; A 1; A 1]])
  = [3].
Proof. reflexivity. Qed.

Example ex_monitor_rejects_refused_free_location :
  mon04A (L [L [A 0; A 4; A 1; A 2]; L [L [A 1; A 4; A 4; A 0]]])
         (L [L [L [A 0; A 0]]; L [L [A 1; A 0; A 4; A 0]; L [A 1; A 4; A 4; A 4]; L [A 0; A 14]]; L [A 2; A 0; A 1]])
  = [4].
Proof. reflexivity. Qed.

Example ex_monitor_accepts_model :
  mon04A (L [L [A 0; A 4; A 1; A 2]; L [L [A 1; A 4; A 4; A 0]; L [A 0]; L [A 0]]])
         (run04A (L [L [A 0; A 4; A 1; A 2]; L [L [A 1; A 4; A 4; A 0]; L [A 0]; L [A 0]]])) = []
  /\ run04A (L [L [A 0; A 4; A 1; A 2]; L [L [A 1; A 4; A 4; A 0]; L [A 0]; L [A 0]]])
     = L [L [L [A 1; A 4; A 4; A 4]; L [A 1; A 0; A 4; A 0]; L [A 0; A 14]]; L [L [A 0; A 14]]; L [A 2; A 0; A 1]].
Proof. split; reflexivity. Qed.
