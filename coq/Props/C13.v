(** C13 — Completeness checking: an ActionResult is returned only if every CAS
    object it references exists.  The lemmas the statements rest on are in
    Complete/CompletenessProofs.v, Complete/WireVisitProofs.v and, for the
    monitor theorems, Run/R13Proofs.v.

    [decorator_get batch maxmsg maxtree fm gets ac] is the model of
    completenessCheckingBlobAccess.Get: [fst = None] means the ActionResult is
    returned, [fst = Some c] an error with gRPC code c; [snd] holds the log of
    calls the CAS received.  [fm k batch] is the CAS's answer to the k-th
    FindMissing call (any function: presence may change from call to call, calls
    may fail), [nth j gets] what Get(tree of output directory j) delivered. *)
From BBS Require Import Common.Sx Complete.WireVisit Complete.WireVisitProofs Complete.Completeness
  Complete.CompletenessProofs Run.R13 Run.R13Proofs.

(** Result returned => every referenced digest (output files, stdout, stderr,
    tree and root-directory digests, every file inside the delivered trees, and
    every directory inside them when the root digest is given) was member of a
    FindMissing batch of this call whose answer did not contain it. *)
Theorem complete_only_if_all_present :
  forall batch maxmsg maxtree fm gets size ar q,
    decorator_get batch maxmsg maxtree fm gets (AcOk size ar) = (None, q) ->
    forall d, In d (referenced ar gets) ->
    exists k b m, In (CFm k b (FmMissing m)) (q_log q) /\ fm k b = FmMissing m /\ In d b /\ ~ In d m.
Proof.
  intros batch maxmsg maxtree fm gets size ar q H.
  exact (check_complete_only_if_all_present _ _ _ _ _ _ _ (get_ok_check _ _ _ _ _ _ _ _ H)).
Qed.
Print Assumptions complete_only_if_all_present.

(** A referenced object the CAS reports missing whenever asked: never the result... *)
Theorem incomplete_never_returned :
  forall batch maxmsg maxtree fm gets size ar d,
    In d (referenced ar gets) -> always_missing fm d ->
    fst (decorator_get batch maxmsg maxtree fm gets (AcOk size ar)) <> None.
Proof. intros. apply get_error_iff_check_error. eapply check_incomplete_never_returned; eauto. Qed.
Print Assumptions incomplete_never_returned.

(** ... and the caller receives NOT_FOUND when nothing else is wrong (no CAS
    failure, trees read cleanly or are themselves absent, messages within the
    size limit). *)
Theorem incomplete_is_not_found :
  forall batch maxmsg maxtree fm gets size ar d,
    (size <= maxmsg)%Z ->
    (forall k b c, fm k b <> FmErr c) ->
    (forall i, benign maxmsg (nth i gets get_not_found)) ->
    In d (referenced ar gets) -> always_missing fm d ->
    fst (decorator_get batch maxmsg maxtree fm gets (AcOk size ar)) = Some code_not_found.
Proof.
  intros batch maxmsg maxtree fm gets size ar d Hs Hfm Hg Hd Hm. unfold decorator_get.
  apply Z.ltb_ge in Hs. rewrite Hs. eapply check_incomplete_is_not_found; eauto.
Qed.
Print Assumptions incomplete_is_not_found.

(** A malformed digest in the ActionResult (or an absent tree digest): error, never the result. *)
Theorem malformed_is_error :
  forall batch maxmsg maxtree fm gets size ar,
    (Exists malformed (ar_files ar)
     \/ Exists (fun od => malformed (od_tree od) \/ malformed (od_root od) \/ od_tree od = None) (ar_dirs ar)
     \/ malformed (ar_stdout ar) \/ malformed (ar_stderr ar)) ->
    fst (decorator_get batch maxmsg maxtree fm gets (AcOk size ar)) <> None.
Proof. intros. apply get_error_iff_check_error, check_malformed_is_error. assumption. Qed.
Print Assumptions malformed_is_error.

(** The tree of output directory j is unreadable or corrupted (its visit does not
    end cleanly), or holds a malformed digest among the digests that are checked,
    or a Directory above the message size limit: error, never the result. *)
Theorem tree_error_is_error :
  forall batch maxmsg maxtree fm gets size ar j od,
    nth_error (ar_dirs ar) j = Some od ->
    bad_tget maxmsg od (nth j gets get_not_found) ->
    fst (decorator_get batch maxmsg maxtree fm gets (AcOk size ar)) <> None.
Proof. intros. apply get_error_iff_check_error. eapply check_tree_error_is_error; eauto. Qed.
Print Assumptions tree_error_is_error.

Theorem tree_unreadable_is_error :
  forall batch maxmsg maxtree fm gets size ar j od,
    nth_error (ar_dirs ar) j = Some od ->
    (exists delivered c, nth j gets get_not_found = get_read_error delivered c
                         \/ nth j gets get_not_found = get_corrupted delivered c)
    \/ nth j gets get_not_found = get_not_found ->
    fst (decorator_get batch maxmsg maxtree fm gets (AcOk size ar)) <> None.
Proof.
  intros batch maxmsg maxtree fm gets size ar j od Hj H.
  eapply tree_error_is_error; [exact Hj|]. left.
  destruct H as [(dl & c & [H|H])|H]; rewrite H; cbn; eauto.
Qed.
Print Assumptions tree_unreadable_is_error.

(** Trees exceeding the configured total size: error, never the result. *)
Theorem tree_budget :
  forall batch maxmsg maxtree fm gets size ar,
    (ar_dirs ar <> [] \/ 0 <= maxtree)%Z ->
    (maxtree < tree_sizes (ar_dirs ar))%Z ->
    fst (decorator_get batch maxmsg maxtree fm gets (AcOk size ar)) <> None.
Proof. intros. apply get_error_iff_check_error, check_tree_budget; assumption. Qed.
Print Assumptions tree_budget.

(** Every FindMissing batch, in every run (successful or not), has at most
    [batch] elements, and the logged answer is the oracle's. *)
Theorem every_batch_bounded :
  forall batch maxmsg maxtree fm gets ac r q,
    (1 <= batch)%nat ->
    decorator_get batch maxmsg maxtree fm gets ac = (r, q) ->
    forall k b a, In (CFm k b a) (q_log q) -> (length b <= batch)%nat /\ a = fm k b.
Proof. exact get_every_batch_bounded. Qed.
Print Assumptions every_batch_bounded.

(** Non-vacuity: two output files, one output directory with root digest whose
    tree has a root (one file, one subdirectory) and a child (one file), stdout;
    batch size 2.  Everything present: returned after four batches (stdout = file 1 is asked about again
    after the first flush).  Object 6
    (the file in the child directory) missing: NOT_FOUND. *)
Definition ex_wd (i : nat) : odig := Some (mkWd true i 5).
Definition ex_ar : action_result :=
  mkAR [ex_wd 1; ex_wd 2] [mkOutDir (ex_wd 3) (ex_wd 4)] (ex_wd 1) None 7.
Definition ex_gets : list tget :=
  [get_ok [(mkDir [ex_wd 5] [ex_wd 7], 40); (mkDir [ex_wd 6] [], 20)]].

Example complete_example :
  decorator_get 2 100 100 (fun _ _ => FmMissing []) ex_gets (AcOk 50 ex_ar)
  = (None, mkQ [7; 6]%nat 4
       [CFm 3 [7; 6]%nat (FmMissing []); CFm 2 [1; 5]%nat (FmMissing []); CGet 0 3;
        CFm 1 [3; 4]%nat (FmMissing []); CFm 0 [1; 2]%nat (FmMissing [])])
  /\ referenced ex_ar ex_gets = [1; 2; 3; 4; 1; 5; 7; 6]%nat.
Proof. vm_compute. split; reflexivity. Qed.

Example incomplete_example :
  fst (decorator_get 2 100 100 (fun _ b => FmMissing (filter (Nat.eqb 6) b)) ex_gets (AcOk 50 ex_ar))
  = Some code_not_found.
Proof. vm_compute. reflexivity. Qed.

Example corrupted_example :
  fst (decorator_get 2 100 100 (fun _ _ => FmMissing [])
         [get_corrupted [(mkDir [ex_wd 5] [ex_wd 7], 40)] code_invalid] (AcOk 50 ex_ar))
  = Some code_internal.
Proof. vm_compute. reflexivity. Qed.

(** ---- The wire-level visitor util.VisitProtoBytesFields (byte level). *)

(** On a well-formed encoding (canonical varints, field numbers 1..2^31-1, fewer
    than 2^63 bytes) it visits exactly the top-level length-delimited fields, in
    order, with number, payload, payload offset and size, and succeeds. *)
Theorem wire_visit_spec : forall fs,
  Forall (fun f => wf_num (fst f)) fs ->
  (N.of_nat (length (encode_fields fs)) <= max_int64)%N ->
  wire_visit_all (encode_fields fs) None = (visits_of 0 fs, WOk).
Proof.
  intros fs Hwf Hlen. unfold wire_visit_all.
  rewrite <- (app_nil_r (encode_fields fs)). destruct (fields_fuel fs []) as [k ->].
  rewrite visit_fields by assumption. cbn. rewrite app_nil_r. reflexivity.
Qed.
Print Assumptions wire_visit_spec.

(** A message cut anywhere strictly inside a field (inside its tag, its length
    or its payload): the complete fields before it are visited and the visitor
    fails - never a silent short visit.  (A cut exactly between two fields is a
    well-formed shorter message; telling it apart is the CAS reader's size and
    checksum validation, which then ends the stream with a read error: next
    theorem.) *)
Theorem wire_visit_truncation_is_error : forall fs num p j,
  Forall (fun f => wf_num (fst f)) fs -> wf_num num ->
  (N.of_nat (length (encode_fields fs)) + N.of_nat (length p) <= max_int64)%N ->
  (0 < j < length (encode_field num p))%nat ->
  wire_visit_all (encode_fields fs ++ firstn j (encode_field num p)) None
  = (visits_of 0 fs, WErr code_invalid_argument).
Proof.
  intros fs num p j Hwf Hn Hlen Hj. unfold wire_visit_all.
  destruct (fields_fuel fs (firstn j (encode_field num p))) as [k ->].
  rewrite visit_fields; [|exact Hwf|lia].
  rewrite truncated_field; [|exact Hn|apply fits_int64; lia|exact Hj].
  cbn [fst snd]. rewrite app_nil_r. reflexivity.
Qed.
Print Assumptions wire_visit_truncation_is_error.

(** Whatever the bytes, a stream that ends in a read error is never visited
    successfully, and the model's fuel always suffices. *)
Theorem wire_visit_read_error_is_error : forall bs c, snd (wire_visit_all bs (Some c)) <> WOk.
Proof. exact wire_visit_all_read_error. Qed.
Print Assumptions wire_visit_read_error_is_error.

Theorem wire_visit_total : forall bs term, snd (wire_visit_all bs term) <> WFuel.
Proof. intros. apply wire_visit_terminates, Nat.lt_succ_diag_r. Qed.
Print Assumptions wire_visit_total.

Example wire_example :
  encode_fields [(1, [8; 1]); (2, []); (300, [7])]%N = [10; 2; 8; 1; 18; 0; 226; 18; 1; 7]%N
  /\ wire_visit_all [10; 2; 8; 1; 18; 0; 226; 18; 1; 7]%N None
     = ([mkVisit 1 2 2 [8; 1]; mkVisit 2 6 0 []; mkVisit 300 9 1 [7]]%N, WOk)
  /\ wire_visit_all [10; 2; 8; 1; 18; 0; 226; 18; 1]%N None
     = ([mkVisit 1 2 2 [8; 1]; mkVisit 2 6 0 []]%N, WErr 3)
  /\ wire_visit_all [10; 2; 8; 1; 18]%N (Some 13) = ([], WErr 13)
  /\ wire_visit_all [138; 128; 0; 128; 0]%N None = ([mkVisit 1 5 0 []]%N, WOk)
  /\ wire_visit_all [8; 1]%N None = ([], WErr 3)
  /\ wire_visit_all [10; 255; 255; 255; 255; 255; 255; 255; 255; 127]%N None = ([], WErr 3).
Proof. vm_compute. repeat split; reflexivity. Qed.

(** ---- The monitor used on implementation traces never fires on the model.

    [mon13] reads an observation [(code same calls env)]; the model predicts
    [code] and [calls] from the environment [env] ([run13 env]).  For every
    environment and every observation that the judge accepts as agreeing with
    the model, all six clauses of the monitor are silent.  [env_wf env] is
      - batch size >= 1,
      - maxtree >= 0 or at least one output directory,
      - for every Tree stream of [env]: whenever the model's byte-level visit of
        the delivered bytes succeeds, the harness's own parse of the same bytes
        (recorded in [env]) is flagged clean, and each root/children field it
        lists is found under its payload offset and is a field the visitor
        hands over ([stream_consistent]).
    harness/c13.go rejects batch < 1 and maxtree < 0 and computes [env] itself
    from the bytes the real CAS reader delivered; the examples below show that
    the monitor does fire on the model when one of the hypotheses is dropped. *)
Theorem monitor_silent_on_agreeing_observation : forall inp obs,
  env_wf (env_of obs) ->
  sx_eqb (run13 (env_of obs)) (L [sx_nth obs 0; sx_nth obs 2]) = true ->
  mon13 inp obs = [].
Proof.
  intros inp obs Hwf Hag. apply MonSilentSx.sx_eqb_eq in Hag. unfold mon13.
  destruct (dec_code (sx_nth (sx_nth (env_of obs) 1) 0)) eqn:Hac; [reflexivity|].
  unfold run13, enc_out in Hag. injection Hag as H0 H2. rewrite <- H0, <- H2.
  cbn [sx_Z sx_list]. apply mon_env_silent; assumption.
Qed.
Print Assumptions monitor_silent_on_agreeing_observation.

Theorem monitor_silent_on_model : forall inp env same,
  env_wf env -> mon13 inp (model_obs env same) = [].
Proof.
  intros inp env same Hwf. apply monitor_silent_on_agreeing_observation; [exact Hwf|].
  unfold model_obs, env_of. rewrite !MonSilentSx.sx_nth_L. cbn [List.nth].
  unfold run13, enc_out. rewrite !MonSilentSx.sx_nth_L. cbn [List.nth]. apply MonSilentSx.sx_eqb_refl.
Qed.
Print Assumptions monitor_silent_on_model.

(** Each hypothesis is needed (environments the harness cannot produce):
    batch 0 -> clause 5; maxtree -1 without output directory -> clause 4; a
    stream flagged unclean although the visit succeeds -> clause 3; a listed
    field that is never visited, or listed twice under one offset -> clause 1. *)
Example monitor_domain_boundary :
  mon13 (L []) (model_obs (nec_env (L [A 0; A 100; A 100]) (L [L [A 1; A 1; A 5]]) (L []) (L []) (L [])) (A 1)) = [5]
  /\ mon13 (L []) (model_obs (nec_env (L [A 1; A 100; A (-1)]) (L []) (L []) (L []) (L [])) (A 1)) = [4]
  /\ mon13 (L []) (model_obs (nec_env (L [A 1; A 100; A 100]) (L []) (L [L [L [A 1; A 2; A 0]; L []]])
                                      (L [L [L []; A 0; L []; A 0]]) (L [])) (A 1)) = [3]
  /\ mon13 (L []) (model_obs (nec_env (L [A 1; A 100; A 100]) (L []) (L [L [L [A 1; A 2; A 0]; L []]])
                                      (L [L [L []; A 0; L [L [A 0; A 1; L [L [L [A 1; A 9; A 5]]; L []]]]; A 1]])
                                      (L [A 9])) (A 1)) = [1]
  /\ mon13 (L []) (model_obs (nec_env (L [A 1; A 100; A 100]) (L []) (L [L [L [A 1; A 2; A 2]; L []]])
                                      (L [L [L [A 10; A 0]; A 0;
                                             L [L [A 2; A 1; L [L []; L []]]; L [A 2; A 1; L [L [L [A 1; A 9; A 5]]; L []]]];
                                             A 1]])
                                      (L [A 9])) (A 1)) = [1].
Proof.
  exact (conj batch_needed (conj budget_needed (conj clean_needed (conj field_visited_needed field_lookup_needed)))).
Qed.

(** Non-vacuity: a well-formed environment with one Tree; the model returns the
    ActionResult after two FindMissing batches and one tree Get. *)
Example monitor_silent_example :
  env_wf ok_env
  /\ run13 ok_env = L [A 0; L [L [A 0; L [A 1; A 2]; A 0; L []]; L [A 1; A 2]; L [A 0; L [A 3; A 5]; A 0; L []]]].
Proof. exact (conj ok_env_wf ok_env_run). Qed.
