(** C04 — Block space is never reused while referenced, and never leaked;
    every reference taken by a storage operation is released exactly once.
    Statements only; the proofs are in Store/P04*.v.

    Every theorem is about the executable model Store/Model.v of
    pkg/blobstore/local (block allocator with FIFO free list and use counts,
    volatile block list, OldCurrentNewLocationBlobMap, flat and hierarchical
    access split into atomic steps), for ALL worlds [w] that pass the
    well-formedness check [wf_world] (any block size, any old/current/new
    geometry, mutable or immutable growth, in-memory or block-device
    allocator with any number of regions, flat or hierarchical keys,
    validating or raw reads, any objects) and ALL schedules [es : list op]
    (any length, any interleaving of Put / Get / FindMissing / GetFromComposite
    steps, readers held open for arbitrarily long, wrong / short / long
    uploads, source failures, corruption) — by induction over [step].
    No hypothesis on the schedule is needed (ill-formed events are answered
    [Bad] and change nothing). *)
From Coq Require Import List NArith ZArith Bool Arith Permutation.
From BBS Require Import Common.Sx Store.Model Store.Wf Run.RStore Run.R04.
From BBS Require Import Store.P04Base Store.P04Prim Store.P04Fbs Store.P04Step Store.P04Main Store.P04Mon Store.P04Extra.
Import ListNotations.
Local Open Scope nat_scope.

(** Vocabulary (Store/P04Base.v, Store/P04Main.v):
    [reach w es]  = [fst (run w (init_state (w_cfg w)) es)], the state after the schedule [es]
                    (every state of [run_states] is such a state: [states_of_a_run_are_reachable]);
    [regions s]   = regions of the listed blocks ++ regions of the zombies ++ the free list;
    [uids s]      = uids of the listed blocks ++ uids of the zombies;
    [allb s]      = listed blocks ++ zombies;
    [refs c t]    = the block uids a parked thread holds a reference on: the writer of a [TPut],
                    the source of a [TGet]/[TGfc] plus its pending refresh writer (for a flat
                    composite read with a non-validating factory the refresh writer is released
                    when the operation parks);
    [nrefs c s u] = number of references parked threads hold on uid [u]. *)

Theorem reach_is_run : forall w es, reach w es = fst (run w (init_state (w_cfg w)) es).
Proof. reflexivity. Qed.
Print Assumptions reach_is_run.

Theorem states_of_a_run_are_reachable : forall w es x,
  In x (run_states w (init_state (w_cfg w)) es) ->
  exists k, fst (fst x) = reach w (firstn k es) /\ snd (fst x) = reach w (firstn (S k) es).
Proof. exact run_states_reach. Qed.
Print Assumptions states_of_a_run_are_reachable.

(** 1. The allocator invariant, in every reachable state.
    (a) The regions of listed blocks, zombies and the free list are pairwise
        distinct; for the block-device allocator they are exactly the device's
        regions [0 .. c_nblocks), so capacity is never lost; in-memory regions
        are never handed out twice.
    (b) Use counts are exact: a listed block has 1 + the number of references
        held by parked operations, a zombie has exactly that number and it is
        positive (a zombie disappears exactly when its last reference goes);
        every referenced uid is a live block object.
    (c) uids are unique and below [s_next_uid]. *)
Theorem allocator_invariant : forall w es, wf_world w = true ->
  let c := w_cfg w in let s := reach w es in
  NoDup (regions s) /\
  (in_memory c = false -> Permutation (regions s) (seq 0 (c_nblocks c))) /\
  (in_memory c = true -> forall r, In r (regions s) -> r < s_next_region s) /\
  (forall b, In b (s_blocks s) -> b_use b = 1 + nrefs c s (b_uid b)) /\
  (forall z, In z (s_zombies s) -> b_use z = nrefs c s (b_uid z) /\ 1 <= b_use z) /\
  (forall tid t uid, In (tid, t) (s_threads s) -> In uid (refs c t) -> In uid (uids s)) /\
  NoDup (uids s) /\ (forall u, In u (uids s) -> u < s_next_uid s).
Proof. intros w es Wf. exact (Inv_allocator w _ (Inv_reach w es Wf)). Qed.
Print Assumptions allocator_invariant.

(** The release that a parked operation still owes never underflows
    (Go: panic("Block has invalid reference count")): the block it refers to
    is either listed with count >= 2 or a zombie with count >= 1. *)
Theorem release_never_underflows : forall w es, wf_world w = true ->
  let c := w_cfg w in let s := reach w es in
  forall tid t uid, In (tid, t) (s_threads s) -> In uid (refs c t) ->
  (exists b, In b (s_blocks s) /\ b_uid b = uid /\ 2 <= b_use b) \/
  (exists z, In z (s_zombies s) /\ b_uid z = uid /\ 1 <= b_use z).
Proof.
  intros w es Wf c s tid t uid H1 H2.
  exact (AInv_referenced c s _ uid (i_a w s (Inv_reach w es Wf)) (in_all_refs c _ tid t uid H1 H2)).
Qed.
Print Assumptions release_never_underflows.

(** Exactly once, globally: the pins on block objects (count minus the list's
    own reference for listed blocks, the whole count for zombies) add up to
    exactly the references parked operations hold — a reference dropped twice
    or never would break the equality. *)
Theorem pins_balance : forall w es, wf_world w = true ->
  let s := reach w es in
  pins s = length (all_refs (w_cfg w) (s_threads s)).
Proof. intros w es Wf. exact (pins_refs _ _ _ (i_a w _ (Inv_reach w es Wf))). Qed.
Print Assumptions pins_balance.

(** 2. No reuse while referenced.  On traces: a block object created during
    a step (uid not below the step's initial [s_next_uid]) never occupies the
    region of a block that an operation parked before the step refers to. *)
Theorem no_reuse_while_referenced : forall w es e, wf_world w = true ->
  let c := w_cfg w in let s := reach w es in let s' := fst (step w s e) in
  forall b', In b' (allb s') -> s_next_uid s <= b_uid b' ->
  forall tid t uid blk, In (tid, t) (s_threads s) -> In uid (refs c t) ->
    find_block s uid = Some blk -> b_region blk <> b_region b'.
Proof. intros w es e Wf. exact (step_no_reuse w _ e (wf_world_wfc w Wf) (Inv_reach w es Wf)). Qed.
Print Assumptions no_reuse_while_referenced.

(** ... and at the allocator itself: in any state satisfying the allocator
    invariant [AInv] (every reachable state, and every intermediate state
    inside a step at which the model calls NewBlock), the region NewBlock
    returns belongs to no existing block object, listed or zombie. *)
Theorem new_block_never_returns_an_owned_region : forall c s R b s',
  AInv c s R -> new_block c s = Some (b, s') ->
  forall x, In x (allb s) -> b_region x <> b_region b.
Proof. exact new_block_fresh_region. Qed.
Print Assumptions new_block_never_returns_an_owned_region.

(** 3. No leak at quiescence: once every operation has returned there is no
    zombie, and on a block device free + listed = all regions.  (That every
    exit path of every operation releases what it pinned is 1(b).) *)
Theorem no_leak_at_quiescence : forall w es, wf_world w = true ->
  let c := w_cfg w in let s := reach w es in
  s_threads s = [] ->
  s_zombies s = [] /\
  (in_memory c = false -> length (s_free s) + length (s_blocks s) = c_nblocks c).
Proof. intros w es Wf. exact (Inv_idle w _ (Inv_reach w es Wf)). Qed.
Print Assumptions no_leak_at_quiescence.

(** 4. The counters, and: the out-of-fuel / impossible branches of the model
    are never taken. *)
Theorem counters_invariant : forall w es, wf_world w = true ->
  let c := w_cfg w in let s := reach w es in
  length (s_blocks s) = s_old s + s_cur s + s_new s /\
  (s_released s <= s_tbr s)%N /\
  (s_tbr s <= s_released s + N.of_nat (length (s_blocks s)))%N /\
  (c_mutable c = false -> s_cur s <= c_cur c /\ s_cur s + s_new s <= c_cur c + c_new c).
Proof. intros w es Wf. exact (proj1 (CInv_counts _ _) (i_c w _ (Inv_reach w es Wf))). Qed.
Print Assumptions counters_invariant.

Theorem fuel_suffices : forall w es, wf_world w = true ->
  let c := w_cfg w in let s := reach w es in
  (forall size, fst (find_block_with_space c s size) <> Err (-1)%Z) /\
  (forall size, fst (ocn_put c s size) <> Err (-2)%Z /\ fst (ocn_put c s size) <> Err (-1)%Z) /\
  (forall o l fk, loc_valid s l = true -> fst (open_with_refresh w s o l fk) <> Err (-3)%Z) /\
  (forall o i e, fst (get_open w s o i) = Err e -> (0 < e)%Z) /\
  (forall o i, fst (fm_refresh_one w s o i) <> Err (-3)%Z) /\
  (forall o i e, fst (fm_refresh_one w s o i) = Err e -> (0 < e)%Z) /\
  (forall ds e, fst (find_missing w s ds) = Err e -> (0 < e)%Z) /\
  (forall o i e, fst (put_start w s o i) = Err e -> (0 < e)%Z) /\
  (forall e, out_ok e (snd (step w s e))).
Proof. intros w es Wf. exact (Inv_fuel w _ (wf_world_wfc w Wf) (Inv_reach w es Wf)). Qed.
Print Assumptions fuel_suffices.

(** the quarantine loop of findBlockWithSpace stops because
    totalBlocksReleased has reached totalBlocksToBeReleased, not because its
    fuel ran out (the other three loops: see [has_space] / [Err] above) *)
Theorem release_loop_completes : forall w es, wf_world w = true ->
  let c := w_cfg w in let s := reach w es in
  let s' := fbs_release c (S (length (s_blocks s))) s in
  s_released s' = s_tbr s'.
Proof.
  intros w es Wf. destruct (Inv_reach w es Wf) as [A C _ _]. exact (release_loop_done _ _ _ A C).
Qed.
Print Assumptions release_loop_completes.

(** the same for every state satisfying the allocator and counter invariants
    for SOME multiset of references [R] (this covers the intermediate states
    inside a step: after a pin, between two refreshes of one FindMissing ...);
    [Ok idx] always designates a block with space. *)
Theorem fuel_suffices_at_invariant_states : forall w s R,
  wf_world w = true -> AInv (w_cfg w) s R -> CInv (w_cfg w) s ->
  let c := w_cfg w in
  (forall size e, fst (find_block_with_space c s size) = Err e -> e = cInvalidArgument \/ e = cUnavailable) /\
  (forall size idx, fst (find_block_with_space c s size) = Ok idx ->
     has_space c (snd (find_block_with_space c s size)) idx size = true) /\
  (forall size e, fst (ocn_put c s size) = Err e -> e = cInvalidArgument \/ e = cUnavailable) /\
  (forall o l fk e, loc_valid s l = true -> fst (open_with_refresh w s o l fk) = Err e -> (0 < e)%Z) /\
  (forall o i e, fst (get_open w s o i) = Err e -> (0 < e)%Z) /\
  (forall o i e, fst (fm_refresh_one w s o i) = Err e -> (0 < e)%Z) /\
  (forall ds e, fst (find_missing w s ds) = Err e -> (0 < e)%Z) /\
  (forall o i e, fst (put_start w s o i) = Err e -> (0 < e)%Z).
Proof. intros w s R Wf. exact (fuel_suffices_inv w s R (wf_world_wfc w Wf)). Qed.
Print Assumptions fuel_suffices_at_invariant_states.

(** 5. The C04 monitor (Run/R04.v: upload source closed exactly once when a
    Put returns; no open reader and no allocated block beyond the listed ones
    once every operation has returned) is silent on every run of the model.
    [mon04_model] is [mon04] fed with the model's own observations. *)
Theorem mon04_on_model_output : forall inp, mon04 inp (run_store inp) = mon04_model (dec_world inp) (dec_ops inp).
Proof. exact mon04_run_store. Qed.
Print Assumptions mon04_on_model_output.

Theorem store_model_satisfies_C04 : forall w es, wf_world w = true -> mon04_model w es = [].
Proof.
  intros w es Wf. unfold mon04_model.
  rewrite (mon04_from_silent w (wf_world_wfc w Wf) es _ [] (Inv_init w) (Sim_init _)). reflexivity.
Qed.
Print Assumptions store_model_satisfies_C04.

(** non-vacuity *)
Local Open Scope N_scope.
Definition exw : world :=
  {| w_cfg := {| c_bs := 8; c_old := 1; c_cur := 1; c_new := 1; c_mutable := false; c_nblocks := 4;
                 c_hier := false; c_inst_keys := false; c_validate := true |};
     w_objs := [[1;2;3;4;5;6]; [7;8;9;10;11;12]]; w_anc := [[0%nat]] |}.
Definition exput (tid o : nat) : list op :=
  [OPutStart tid o 0; OPutChunk tid (nth o (w_objs exw) []); OPutEnd tid 0%Z].
(** upload object 0, open a reader on it and keep it open, rotate the store
    with four more uploads *)
Definition exes1 : list op := exput 1 0 ++ [OGetOpen 9 0 0] ++ exput 2 1 ++ exput 3 1 ++ exput 4 1 ++ exput 5 1.
Definition exes2 : list op := exes1 ++ [OGetConsume 9].

Example ex_wf : wf_world exw = true.
Proof. vm_compute. reflexivity. Qed.

(** while the reader is open its block (uid 0, region 0) has been popped
    from the list and lives on as a zombie with count 1; the device is full,
    region 0 is NOT in the free list, and the fifth upload was refused with
    UNAVAILABLE (14) instead of reusing it *)
Example ex_zombie_not_reused :
  let s := reach exw exes1 in
  map (fun b => (b_uid b, b_region b, b_use b)) (s_zombies s) = [(0, 0, 1)]%nat /\
  map (fun b => (b_uid b, b_region b, b_use b)) (s_blocks s) = [(1, 1, 1); (2, 2, 1); (3, 3, 1)]%nat /\
  s_free s = [] /\ length (s_threads s) = 1%nat /\
  nth 13 (snd (run exw (init_state (w_cfg exw)) exes1)) Bad = Done cUnavailable [].
Proof. vm_compute. repeat split; reflexivity. Qed.

(** once the reader is consumed (it still returns the right bytes) the zombie
    is gone and its region is allocatable again: free + listed = 4 *)
Example ex_released_at_quiescence :
  let s := reach exw exes2 in
  s_threads s = [] /\ s_zombies s = [] /\ s_free s = [0%nat] /\ length (s_blocks s) = 3%nat /\
  last (snd (run exw (init_state (w_cfg exw)) exes2)) Bad = Done cOK [1;2;3;4;5;6] /\
  mon04_model exw exes2 = [].
Proof. vm_compute. repeat split; reflexivity. Qed.
