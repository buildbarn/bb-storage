(** C10 — hierarchical CAS: objects visible exactly under the uploader's
    instance subtree.  Statements only; proofs are in Store/P10*.v (built on
    Store/P08Frame.v, P08Step.v, P08Quarantine.v).  The object is the
    executable store model Store/Model.v with [c_hier (w_cfg w) = true];
    "all schedules" = all event lists [es] from the initial state, any
    length, any interleaving at the model's step granularity (concurrent
    uploads of one digest under unrelated names, rotations, refreshes,
    corruption events included).  [ups w s es] is the list of (object,
    instance) of uploads (TPut = new copy, TPutExisting = validated against
    the existing copy) whose OPutEnd returned [Done 0] during [es]
    (characterised by [successful_uploads_spec]). *)
From Coq Require Import List NArith ZArith Bool Arith.
From BBS Require Import Common.Sx Store.Model Store.Wf Store.P08Frame Store.P08Step Store.P08Quarantine
  Store.P10Inv Store.P10Visible Store.P08Monitor Store.P10Monitor Run.RStore Run.R01 Run.R10.
Import ListNotations.
Open Scope N_scope.

Theorem successful_uploads_spec : forall w es s o i, In (o, i) (ups w s es) <->
  exists es1 e es2, es = es1 ++ e :: es2 /\ In (o, i) (completed w (exec w s es1) e).
Proof. exact ups_spec. Qed.
Print Assumptions successful_uploads_spec.

Theorem completed_upload_spec : forall w s e o i, In (o, i) (completed w s e) <->
  exists tid err b, e = OPutEnd tid err /\ snd (step w s e) = Done cOK b /\
    ((exists wr acc, thr_get (s_threads s) tid = Some (TPut o i wr acc)) \/
     (exists acc, thr_get (s_threads s) tid = Some (TPutExisting o i acc))).
Proof. exact completed_spec. Qed.
Print Assumptions completed_upload_spec.

(** ---- 1. visible_only_under_uploader_subtree ---- *)

(** invariant: every index entry under a lookup key (o, S i) stems from a
    successful upload of o under i *)
Theorem lookup_entry_provenance : forall w es o i, c_hier (w_cfg w) = true ->
  has_entry (exec w (init_state (w_cfg w)) es) (o, S i) -> In (o, i) (ups w (init_state (w_cfg w)) es).
Proof. exact entry_provenance. Qed.
Print Assumptions lookup_entry_provenance.

Theorem visible_only_under_uploader_subtree_get : forall w es tid o j s', c_hier (w_cfg w) = true ->
  step w (exec w (init_state (w_cfg w)) es) (OGetOpen tid o j) = (s', Parked) ->
  exists i, In i (ancestors w j) /\ In (o, i) (ups w (init_state (w_cfg w)) es).
Proof. exact visible_get. Qed.
Print Assumptions visible_only_under_uploader_subtree_get.

Theorem visible_only_under_uploader_subtree_find_missing : forall w es ds m s' pos o j, c_hier (w_cfg w) = true ->
  step w (exec w (init_state (w_cfg w)) es) (OFindMissing ds) = (s', Missing cOK m) ->
  nth_error ds pos = Some (o, j) -> ~ In pos m ->
  exists i, In i (ancestors w j) /\ In (o, i) (ups w (init_state (w_cfg w)) es).
Proof. exact visible_find_missing. Qed.
Print Assumptions visible_only_under_uploader_subtree_find_missing.

(** hierarchical composite read of parent o under j: the slicer receives the
    parent's reader only if o is visible under j; otherwise it receives an
    error buffer, and slicing an error buffer never returns [Done 0] *)
Theorem visible_only_under_uploader_subtree_composite : forall w es tid o j ch s' uid l r fk,
  c_hier (w_cfg w) = true ->
  step w (exec w (init_state (w_cfg w)) es) (OGfcStart tid o j ch) = (s', Parked) ->
  thr_get (s_threads s') tid = Some (TGet o uid l r fk) ->
  exists i, In i (ancestors w j) /\ In (o, i) (ups w (init_state (w_cfg w)) es).
Proof. exact visible_composite. Qed.
Print Assumptions visible_only_under_uploader_subtree_composite.

Theorem composite_of_invisible_parent_fails : forall w es tid e slices s' out, c_hier (w_cfg w) = true ->
  thr_get (s_threads (exec w (init_state (w_cfg w)) es)) tid = Some (TGfcErr e) ->
  step w (exec w (init_state (w_cfg w)) es) (OGfcSlice tid slices) = (s', out) ->
  exists c, out = Done c [] /\ c <> 0%Z.
Proof. exact composite_error_never_ok. Qed.
Print Assumptions composite_of_invisible_parent_fails.

(** ---- 2. existing_copy_requires_valid_content ---- *)
Theorem existing_copy_requires_valid_content : forall w s tid o i acc err s' out,
  thr_get (s_threads s) tid = Some (TPutExisting o i acc) ->
  step w s (OPutEnd tid err) = (s', out) ->
  (out = Done cOK [] /\ err = 0%Z /\ acc = content w o /\
   exists l, index_get s (canonical_key o) = Some l /\ s_index s' = ((o, S i), l) :: s_index s) \/
  ((exists c, out = Done c [] /\ c <> 0%Z) /\ s_index s' = s_index s).
Proof. exact existing_copy_end. Qed.
Print Assumptions existing_copy_requires_valid_content.

Theorem existing_copy_chunks_do_not_touch_index : forall w s tid o i acc data s' out,
  thr_get (s_threads s) tid = Some (TPutExisting o i acc) ->
  step w s (OPutChunk tid data) = (s', out) -> s_index s' = s_index s.
Proof. exact existing_copy_chunk. Qed.
Print Assumptions existing_copy_chunks_do_not_touch_index.

(** ---- 3. never_widens ---- *)
(** in every reachable state, whatever the next event (refresh, sync,
    eviction, FindMissing, reads, corruption, concurrent operations): a
    lookup key has an entry afterwards only if it had one before or this
    very step completed a successful upload of that object under that
    instance name *)
Theorem never_widens : forall w es e s' out o i, c_hier (w_cfg w) = true ->
  let s := exec w (init_state (w_cfg w)) es in
  step w s e = (s', out) ->
  has_entry s' (o, S i) -> has_entry s (o, S i) \/ In (o, i) (completed w s e).
Proof. exact never_widens_step. Qed.
Print Assumptions never_widens.

(** ---- 4. readable_under_every_descendant (absent eviction) ---- *)
(** after a successful upload of o under i, as long as the quarantine /
    release boundary s_tbr is unchanged (s_released <= s_tbr bounds the
    released blocks; only s_tbr enters the validity of a location), a read
    under any j below i does not answer NOT_FOUND *)
Theorem readable_under_every_descendant : forall w es1 e es2 o i j tid s' outG, c_hier (w_cfg w) = true ->
  let s := exec w (init_state (w_cfg w)) es1 in
  let sU := fst (step w s e) in
  In (o, i) (completed w s e) ->
  s_tbr (exec w sU es2) = s_tbr sU ->
  In i (ancestors w j) ->
  step w (exec w sU es2) (OGetOpen tid o j) = (s', outG) ->
  forall b, outG <> Done cNotFound b.
Proof. exact readable_under_every_descendant_trace. Qed.
Print Assumptions readable_under_every_descendant.

(** ---- 5. the monitor of Run/R10.v on runs of the model ---- *)
(** [mon10] = C01's monitor (clauses 1 content, 2 provenance, 3 integrity
    verdict without corruption) + clause 4 (readable under every descendant).
    C10 owns clause 2 (hierarchical case) and clause 4: neither ever fires,
    for every world with c_hier = true and every schedule (no thread-id
    discipline needed).  Clauses 1 and 3 are C01's statement; given it, the
    whole monitor is silent. *)
Theorem monitor_is_model_monitor : forall inp,
  mon10 inp (run_store inp) = mon10_model (dec_world inp) (dec_ops inp).
Proof. exact mon10_model_eq. Qed.
Print Assumptions monitor_is_model_monitor.

Theorem clause2_provenance_never_fires : forall w es, c_hier (w_cfg w) = true -> ~ In 2%Z (mon01_raw w es).
Proof. exact mon01_no_clause2. Qed.
Print Assumptions clause2_provenance_never_fires.

Theorem clause4_readability_never_fires : forall w es, c_hier (w_cfg w) = true -> mon10_clause4 w es = [].
Proof. exact mon10_no_clause4. Qed.
Print Assumptions clause4_readability_never_fires.

Theorem store_model_satisfies_C10_partial : forall w es, c_hier (w_cfg w) = true ->
  mon10_clause4 w es = [] /\
  forall v, In v (mon10_model w es) -> v <> 2%Z /\ In v (mon01_model w es).
Proof. exact mon10_model_only_data_clauses. Qed.
Print Assumptions store_model_satisfies_C10_partial.

(** full statement  [forall w es, c_hier (w_cfg w) = true -> mon10_model w es = []]
    = the following with C01's theorem [mon01_model w es = []] plugged in *)
Theorem store_model_satisfies_C10_given_C01 : forall w es, c_hier (w_cfg w) = true ->
  mon01_model w es = [] -> mon10_model w es = [].
Proof. exact P10Monitor.store_model_satisfies_C10_given_C01. Qed.
Print Assumptions store_model_satisfies_C10_given_C01.

(** ---- non-vacuity ---- *)
Definition ex_cfg : config :=
  {| c_bs := 16; c_old := 1; c_cur := 1; c_new := 1; c_mutable := false; c_nblocks := 5;
     c_hier := true; c_inst_keys := true; c_validate := true |}.
(** instance names: 0 = "", 1 = "a", 2 = "b", 3 = "a/x" *)
Definition ex_w : world :=
  {| w_cfg := ex_cfg; w_objs := [[1; 2; 3; 4]]; w_anc := [[0]; [0; 1]; [0; 2]; [0; 1; 3]]%nat |}.
Definition ex_es : list op :=
  [OPutStart 0 0 1; OPutChunk 0 [1; 2; 3; 4]; OPutEnd 0 0%Z;      (* upload under "a" *)
   OGetOpen 1 0 3; OGetConsume 1;                                (* readable under "a/x" *)
   OGetOpen 2 0 2; OGetOpen 3 0 0;                               (* NOT_FOUND under "b" and "" *)
   OPutStart 4 0 2; OPutChunk 4 [1; 2; 3; 5]; OPutEnd 4 0%Z;     (* existing copy, wrong bytes under "b": refused *)
   OGetOpen 5 0 2; OFindMissing [(0, 2); (0, 3)]%nat;            (* still NOT_FOUND / missing under "b" *)
   OPutStart 6 0 2; OPutChunk 6 [1; 2; 3; 4]; OPutEnd 6 0%Z;     (* existing copy, valid bytes under "b" *)
   OGetOpen 7 0 2; OGetConsume 7;                                (* now readable under "b" *)
   OGfcStart 8 0 3 0; OGfcSlice 8 [(0%nat, (0, 4))];             (* composite read under "a/x" *)
   OGfcStart 9 0 0 0; OGfcSlice 9 [(0%nat, (0, 4))]].            (* composite read under "": NOT_FOUND *)
Example ex_run :
  wf_world ex_w = true /\
  snd (run ex_w (init_state ex_cfg) ex_es) =
  [Parked; Parked; Done 0 []; Parked; Done 0 [1; 2; 3; 4]; Done 5 []; Done 5 []; Parked; Parked; Done 3 [];
   Done 5 []; Missing 0 [0%nat]; Parked; Parked; Done 0 []; Parked; Done 0 [1; 2; 3; 4]; Parked;
   Done 0 [1; 2; 3; 4]; Parked; Done 5 []] /\
  ups ex_w (init_state ex_cfg) ex_es = [(0, 1); (0, 2)]%nat.
Proof. vm_compute. repeat split. Qed.
