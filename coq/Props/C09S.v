(** C09S — stream clones of a CAS buffer obey C09's specification.
    The sub-check's model and monitor are C09's applied to the inner case, so
    every theorem of Props/C09.v speaks about what a clone's consumer observes;
    the statements below make that explicit for the monitor. *)
From Coq Require Import List ZArith.
From BBS Require Import Common.Sx Buffer.Source Run.R09 Run.R09S Buffer.C09FuelSuffices Props.C09.
Import ListNotations.

Theorem clone_model_is_direct_model : forall order inner,
  run09S (L [order; inner]) = run09 inner /\
  (forall obs, mon09S (L [order; inner]) obs = mon09 inner obs).
Proof. intros order inner. split; [reflexivity|intros obs; reflexivity]. Qed.
Print Assumptions clone_model_is_direct_model.

Theorem mon09S_silent_on_model_partial : forall inp,
  (forall x, In (Err x) (k_evs (dec_case (inner09S inp))) -> (0 < x)%Z) ->
  good_param (k_meth (dec_case (inner09S inp))) = true ->
  mon09S inp (run09S inp) = [].
Proof. intros inp H1 H2. exact (mon09_silent_on_model_partial (inner09S inp) H1 H2). Qed.
Print Assumptions mon09S_silent_on_model_partial.
