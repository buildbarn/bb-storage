(** C02 — after a crash and restart no object is served with wrong bytes.
    Statements only; proofs are in Persist/CrashEpochProofs.v,
    Persist/CrashAllocProofs.v (and the files named below).

    The transition system ([CrashLts.cstep], [crun]) is the LTS of
    Persist/Syncer.v (persistent block list + the two PeriodicSyncer loops,
    tied to the code by the C07 check) instrumented with the block allocator,
    uploads (allocate / data writes / finalizer + index record writes in one
    lock-protected section) and the directory operations of
    WritePersistentState; it emits ONE global I/O log.  [creach] = reachable by
    ANY event list.  A crash is a prefix [firstn n] of that log (so it may fall
    between any two I/O operations, also inside one atomic step) plus a loss
    choice [ch] (Persist/Crash.v: any subset of the data sector writes issued
    since the begin of the last completed sync, any subset of the index record
    writes, any prefix of the directory name-space operations since the last
    directory fsync, and what an un-fsynced file contains); [crash_of] computes
    the post-crash media, [restart] = NewPersistentBlockList on the surviving
    state file, [resolves] = the post-crash slot content passes
    BlockReferenceToBlockIndex and the seed check of the record checksum.

    Modelled assumptions: record writes are atomic; a record verifies under
    exactly the seed it was written with (Index/RecordCodecProofs:
    codec_roundtrip_thm, stale_seed_invalid_thm — restated below); a fresh seed
    differs from all earlier ones ([fresh] guard); a successful Sync makes every
    write issued before its call durable; sector writes are atomic; rename is
    durable after the directory fsync; same geometry across restarts.
    Repeated crashes (arbitrarily many lives): [repeated_crash], [repeated_crash_bytes],
    [no_overwrite_after_restart], [safe_medium_closed] below (Persist/CrashRepeat*.v). *)
From Coq Require Import List NArith ZArith Bool Arith Lia.
From BBS Require Import Common.Sx Persist.PBL Persist.Syncer Persist.Crash Persist.CrashLts
  Persist.CrashEpochProofs Persist.CrashAllocProofs Persist.CrashOffsetsProofs Persist.CrashReuseProofs Persist.CrashSafe Index.RecordCodec Index.RecordCodecProofs Run.R02.
From BBS Require Persist.CrashRepeat Persist.CrashRepeatShadow Persist.CrashRepeatRec Persist.CrashRepeatSafe.
From BBS Require Run.R02Mon.
Import ListNotations.
Local Open Scope nat_scope.

(** ---- the modelled assumption about the record checksum, from the codec ---- *)
Theorem record_verifies_under_its_seed_only : forall seed seed' r,
  wf_drec r -> (seed < 2 ^ 64)%N -> (seed' < 2 ^ 64)%N ->
  decode seed (encode seed r) = Some r /\ (seed <> seed' -> decode seed' (encode seed r) = None).
Proof.
  intros seed seed' r W H1 H2. split; [apply codec_roundtrip_thm; exact W|].
  intros Hn. apply stale_seed_invalid_thm; assumption.
Qed.
Print Assumptions record_verifies_under_its_seed_only.

(** ---- key lemma 1: every record of an epoch is written after the data it
    designates was issued, and before the epoch is closed by NotifySyncStarting ---- *)
Theorem record_after_data_before_close : forall g cfg t0 c, creach g cfg medium_empty t0 c ->
  forall p slot r, nth_error (cs_log c) p = Some (IoIndex slot r) ->
    (forall q l lo hi, nth_error (cs_log c) q = Some (IoData (r_up r) l lo hi) -> q < p) /\
    (forall j, j < cs_nclosed c -> nth_error (cs_seeds c) j = Some (r_seed r) -> p < cs_closed_at c).
Proof. exact CrashEpochProofs.record_after_data_before_close. Qed.
Print Assumptions record_after_data_before_close.

(** ---- key lemma 2: a seed appears in a state file (already when the file is
    WRITTEN, a fortiori when it is durable) only after a sync that started
    after the epoch was closed has completed: every record carrying that seed
    lies below the durable frontier of the log prefix before the write ---- *)
Theorem seed_in_state_file_only_after_sync : forall g cfg t0 c, creach g cfg medium_empty t0 c ->
  forall q st h s, nth_error (cs_log c) q = Some (IoWriteNew (st, h)) ->
    In s (concat (map bs_seeds (snd st))) ->
    forall p slot r, nth_error (cs_log c) p = Some (IoIndex slot r) -> r_seed r = s ->
      p < durable_upto (firstn q (cs_log c)).
Proof. exact CrashEpochProofs.seed_durable_after_sync. Qed.
Print Assumptions seed_in_state_file_only_after_sync.

(** ---- crash safety: single crash of the first life (a store that started on empty media) ----
    For every history, every crash point, every loss choice: a record that resolves after the
    restart (i) designates the allocation of a COMPLETED upload of the record's key, (ii) all data
    writes of that upload lie below the durable frontier of the log prefix (so they survive every
    loss choice), (iii) the restarted block list resolves it to the device region that upload was
    allocated in, below the block's restored write offset, and (iv) on the post-crash data device
    every byte of the location is owned by a write of THAT upload: no surviving write of another
    upload covers it (allocations in one block are disjoint; a region is handed out again only
    after a state file without the block is durable, and then the surviving state file cannot
    list the block any more). *)
Theorem crash_safe : forall g cfg t0 c, length (g_locs g) < 65536 -> NoDup (g_locs g) ->
  creach g cfg medium_empty t0 c ->
  forall n ch slot r i, resolves g (crash_of medium_empty c n ch) slot r i ->
  exists up l b,
    nth_error (cs_ups c) (r_up r) = Some up /\ up_key up = r_key r /\ up_off up = r_off r /\
    up_size up = r_size r /\ up_state up = UpFin true /\ up_issued up = up_size up /\
    (forall q l' lo hi, nth_error (cs_log c) q = Some (IoData (r_up r) l' lo hi) ->
       q < durable_upto (firstn n (cs_log c))) /\
    nth_error (blocks (fst (restart (geom g) (m_state (crash_of medium_empty c n ch))))) i = Some b /\
    b_loc b = l /\ nth_error (cs_locs c) (up_abs up) = Some l /\
    (0 <= r_off r)%Z /\ (0 <= r_size r)%Z /\ (r_off r + r_size r <= b_written b)%Z /\
    (forall z, (r_off r <= z < r_off r + r_size r)%Z ->
       byte_owner (m_data (crash_of medium_empty c n ch)) l z None = Some (r_up r)).
Proof. exact CrashSafe.crash_safe_thm. Qed.
Print Assumptions crash_safe.

(** the two halves separately (the first without any hypothesis on the geometry) *)
Theorem crash_safe_partial_durable : forall g cfg t0 c, creach g cfg medium_empty t0 c ->
  forall n ch slot r i, resolves g (crash_of medium_empty c n ch) slot r i ->
  exists up, nth_error (cs_ups c) (r_up r) = Some up /\ up_key up = r_key r /\ up_off up = r_off r /\
    up_size up = r_size r /\ up_state up = UpFin true /\ up_issued up = up_size up /\
    (forall q l lo hi, nth_error (cs_log c) q = Some (IoData (r_up r) l lo hi) ->
       q < durable_upto (firstn n (cs_log c))).
Proof. exact CrashEpochProofs.crash_safe_durable. Qed.
Print Assumptions crash_safe_partial_durable.

(** relative distances (epoch's last block - blocksFromLast) are preserved by
    dropping a prefix of the block list and by the restart *)
Theorem crash_safe_partial_location : forall g cfg t0 c, length (g_locs g) < 65536 ->
  creach g cfg medium_empty t0 c ->
  forall n ch slot r i, resolves g (crash_of medium_empty c n ch) slot r i ->
  exists up l, nth_error (cs_ups c) (r_up r) = Some up /\
    block_loc (fst (restart (geom g) (m_state (crash_of medium_empty c n ch)))) i = Some l /\
    nth_error (cs_locs c) (up_abs up) = Some l.
Proof. exact CrashAllocProofs.crash_safe_location_strong. Qed.
Print Assumptions crash_safe_partial_location.

(** ---- no overwrite after restart (any base medium) ----
    allocations within a block are pairwise disjoint and every data write lies
    inside the allocation of its upload; after a restart on ANY medium every
    allocation in a restored block starts at or above the restored write offset
    rounded up to a sector. *)
Theorem allocations_disjoint : forall g cfg base t0 c, creach g cfg base t0 c ->
  (forall k1 k2 u1 u2, k1 <> k2 ->
     nth_error (cs_ups c) k1 = Some u1 -> nth_error (cs_ups c) k2 = Some u2 ->
     up_abs u1 = up_abs u2 -> up_abs u1 < length (cs_locs c) ->
     (up_off u1 + up_size u1 <= up_off u2 \/ up_off u2 + up_size u2 <= up_off u1)%Z) /\
  (forall k u, nth_error (cs_ups c) k = Some u -> up_abs u < length (cs_locs c) ->
     exists cur, nth_error (cs_cur c) (up_abs u) = Some cur /\ (up_off u + up_size u <= cur)%Z) /\
  (forall k l lo hi, In (IoData k l lo hi) (cs_log c) ->
     exists u, nth_error (cs_ups c) k = Some u /\ nth_error (cs_locs c) (up_abs u) = Some l /\
       (up_off u <= lo /\ lo < hi /\ hi <= up_off u + up_size u)%Z).
Proof. exact CrashAllocProofs.alloc_disjoint. Qed.
Print Assumptions allocations_disjoint.

Theorem no_overwrite_after_restart_partial : forall g cfg base t0 c, (0 < g_sector g)%Z ->
  creach g cfg base t0 c ->
  (forall i b, nth_error (blocks (fst (restart (geom g) (m_state base)))) i = Some b ->
     exists cur, nth_error (cs_cur c) i = Some cur /\ (round_up (g_sector g) (b_written b) <= cur)%Z) /\
  (forall k u b, nth_error (cs_ups c) k = Some u ->
     nth_error (blocks (fst (restart (geom g) (m_state base)))) (up_abs u) = Some b ->
     (b_written b <= round_up (g_sector g) (b_written b) /\ round_up (g_sector g) (b_written b) <= up_off u)%Z).
Proof. exact CrashAllocProofs.alloc_above_restored_offset. Qed.
Print Assumptions no_overwrite_after_restart_partial.

(** ---- key lemma 3: restored write offsets cover every resolvable location ---- *)
Theorem restored_offsets_cover : forall g cfg t0 c, length (g_locs g) < 65536 ->
  creach g cfg medium_empty t0 c ->
  forall n ch slot r i, resolves g (crash_of medium_empty c n ch) slot r i ->
  exists b, nth_error (blocks (fst (restart (geom g) (m_state (crash_of medium_empty c n ch))))) i = Some b /\
    (r_off r + r_size r <= b_written b)%Z /\ (0 <= r_off r)%Z /\ (0 <= r_size r)%Z.
Proof. exact CrashOffsetsProofs.restored_offsets_cover. Qed.
Print Assumptions restored_offsets_cover.

(** ---- no overwrite after restart: the two-life forms ----
    (a) every data write of a life into a block restored at its start lies at or above the
    restored write offset rounded up to a sector (any base medium); (b) for a second life started
    on the crashed media of a first life: every data write into restored block i lies above the end
    of every location that resolves to block i.  The full statement — including writes into a NEW
    block allocated on the region of a restored block that was popped and released during the life,
    and for the media of ANY history of lives — is [no_overwrite_after_restart] below. *)
Theorem no_overwrite_after_restart_block : forall g cfg base t0 c, (0 < g_sector g)%Z ->
  creach g cfg base t0 c ->
  forall q k l lo hi, nth_error (cs_log c) q = Some (IoData k l lo hi) ->
  forall up i b, nth_error (cs_ups c) k = Some up -> up_abs up = i ->
    nth_error (blocks (fst (restart (geom g) (m_state base)))) i = Some b ->
    (b_written b <= round_up (g_sector g) (b_written b) <= lo)%Z.
Proof. exact CrashOffsetsProofs.no_overwrite_after_restart_block. Qed.
Print Assumptions no_overwrite_after_restart_block.

Theorem no_overwrite_after_restart_partial2 :
  forall g cfg t0 c n ch cfg2 t02 c2,
  length (g_locs g) < 65536 -> (0 < g_sector g)%Z ->
  creach g cfg medium_empty t0 c ->
  creach g cfg2 (crash_of medium_empty c n ch) t02 c2 ->
  forall slot r i, resolves g (crash_of medium_empty c n ch) slot r i ->
  forall q k l lo hi up, nth_error (cs_log c2) q = Some (IoData k l lo hi) ->
    nth_error (cs_ups c2) k = Some up -> up_abs up = i ->
    (r_off r + r_size r <= lo)%Z.
Proof. exact CrashOffsetsProofs.committed_space_not_overwritten_in_restored_block. Qed.
Print Assumptions no_overwrite_after_restart_partial2.

(** the data writes of one upload tile its allocation: once all bytes were issued every byte of the
    allocation is covered by a write of that upload (any base medium) *)
Theorem upload_writes_cover : forall g cfg base t0 c, creach g cfg base t0 c ->
  forall k up, nth_error (cs_ups c) k = Some up -> up_issued up = up_size up ->
  forall z, (up_off up <= z < up_off up + up_size up)%Z ->
    exists l lo hi, In (IoData k l lo hi) (cs_log c) /\
      nth_error (cs_locs c) (up_abs up) = Some l /\ (lo <= z < hi)%Z.
Proof. intros g cfg base t0 c R k up H. exact (proj2 (CrashOffsetsProofs.upload_writes_tile g cfg base t0 c R k up H)). Qed.
Print Assumptions upload_writes_cover.

(** a block's region is handed out again only after a state file without it is durable:
    there is an assignment K of window starts (absolute index of the first listed block) to the
    state-file writes of the log such that the directory operations form non-interleaved attempts
    remove/create/write/fsync/rename/dirsync, K is non-decreasing and describes the payloads, and
    whenever data is written into block a', every earlier block a on the same region lies below the
    window start of the last state write whose directory fsync precedes that data write. *)
Theorem region_reused_only_after_durable_state : forall g cfg t0 c, length (g_locs g) < 65536 ->
  NoDup (g_locs g) -> creach g cfg medium_empty t0 c -> exists K, reuse_witness c K.
Proof. exact CrashReuseProofs.region_reused_only_after_durable_state. Qed.
Print Assumptions region_reused_only_after_durable_state.

(** the regions of the list, of the blocks awaiting release, of the free list and of the
    regions held for open writers partition the device *)
Theorem regions_partition : forall g cfg t0 c, length (g_locs g) < 65536 -> NoDup (g_locs g) ->
  creach g cfg medium_empty t0 c ->
  NoDup (skipn (totalReleased (s_pbl (cs_sys c))) (cs_locs c) ++ toRelease (s_pbl (cs_sys c)) ++ cs_free c ++ cs_held c).
Proof. intros g cfg t0 c H1 H2 R. exact (proj1 (CrashReuseProofs.regions_distinct g cfg t0 c H1 H2 R)). Qed.
Print Assumptions regions_partition.

(** ---- repeated crashes ----
    A HISTORY is a list of lives ([CrashRepeat.lives g H m]): the first starts on empty media, every
    later one on the media left by the crash of its predecessor — ANY reachable state of that life,
    ANY prefix of its I/O log, ANY loss choice; [m] = the media after the last crash.  So crashes
    during recovery, right after a restart, before the first state write of a life … are included.
    The upload tags of the model ([r_up], the tag of [IoData]) are indices into the upload table of
    ONE life; across lives an upload is identified by (life, index): [CrashRepeatSafe.hist_data H]
    is the data device as the history left it — the surviving data writes of every life, tagged with
    the number of the life — and [towner … l z] the (life, upload) of the LAST surviving write that
    covers byte [z] of region [l].

    [repeated_crash]: after ANY number of crash + restart rounds, a record that resolves on the final
    media designates a COMPLETED upload (life j, index k) of the record's key, offset and size, all
    of whose data writes lay below the durable frontier of the log prefix at which life j crashed,
    allocated in the very device region that the restarted list attaches to the resolved block,
    below that block's restored write offset, and every byte of the location is owned by a write of
    that upload — no surviving write of any other upload of any life covers it.
    [repeated_crash_bytes]: the same on the medium's own data list ([byte_owner (m_data m)]).
    Proof: the medium invariant [SafeF] holds for empty media and is closed under one life + crash
    from ANY medium that satisfies it ([safe_medium_closed]); inside a life on such a medium every
    record is native (a completed upload of this life, as in the first life) or inherited (an object
    of a restored block, re-referenced by Robin-Hood moves), decided once per record
    (Persist/CrashRepeatRec.v); the structural first-life invariants are transported by a step-by-step
    simulation in which moves are replaced by writes of the finalizer's own record
    (Persist/CrashRepeatSim.v, CrashRepeatShadow.v). *)
Theorem repeated_crash : forall g H m,
  length (g_locs g) < 65536 -> NoDup (g_locs g) -> (0 < g_sector g)%Z ->
  CrashRepeat.lives g H m ->
  forall slot r i, resolves g m slot r i ->
  exists j lf k up b l,
    nth_error H j = Some lf /\ nth_error (cs_ups (CrashRepeat.lf_c lf)) k = Some up /\
    up_key up = r_key r /\ up_off up = r_off r /\ up_size up = r_size r /\
    up_state up = UpFin true /\ up_issued up = up_size up /\
    (forall q l' lo hi, nth_error (cs_log (CrashRepeat.lf_c lf)) q = Some (IoData k l' lo hi) ->
       q < durable_upto (firstn (CrashRepeat.lf_n lf) (cs_log (CrashRepeat.lf_c lf)))) /\
    nth_error (cs_locs (CrashRepeat.lf_c lf)) (up_abs up) = Some l /\
    nth_error (blocks (fst (restart (geom g) (m_state m)))) i = Some b /\ b_loc b = l /\
    (r_off r + r_size r <= b_written b)%Z /\
    forall z, (r_off r <= z < r_off r + r_size r)%Z ->
      CrashRepeatSafe.towner (CrashRepeatSafe.hist_data H) l z None = Some (j, k).
Proof. exact CrashRepeatSafe.repeated_crash. Qed.
Print Assumptions repeated_crash.

(** the data list of the final medium is the history's data with the life tags erased, so on the
    medium itself the last write covering each byte of the location carries that upload's tag *)
Theorem repeated_crash_bytes : forall g H m,
  length (g_locs g) < 65536 -> NoDup (g_locs g) -> (0 < g_sector g)%Z ->
  CrashRepeat.lives g H m ->
  forall slot r i, resolves g m slot r i ->
  exists j lf k up b,
    nth_error H j = Some lf /\ nth_error (cs_ups (CrashRepeat.lf_c lf)) k = Some up /\
    up_key up = r_key r /\ up_off up = r_off r /\ up_size up = r_size r /\ up_state up = UpFin true /\
    nth_error (blocks (fst (restart (geom g) (m_state m)))) i = Some b /\
    nth_error (cs_locs (CrashRepeat.lf_c lf)) (up_abs up) = Some (b_loc b) /\
    (r_off r + r_size r <= b_written b)%Z /\
    forall z, (r_off r <= z < r_off r + r_size r)%Z -> byte_owner (m_data m) (b_loc b) z None = Some k.
Proof. exact CrashRepeatSafe.repeated_crash_bytes. Qed.
Print Assumptions repeated_crash_bytes.

Theorem data_of_history : forall g H m, CrashRepeat.lives g H m ->
  m_data m = map snd (CrashRepeatSafe.hist_data H).
Proof. exact CrashRepeatSafe.lives_data. Qed.
Print Assumptions data_of_history.

(** the invariant: closed under a life of any length and a crash, from ANY medium that satisfies it
    (the "one restart from any invariant-satisfying state" step; [repeated_crash] is its iteration) *)
Theorem safe_medium_empty : forall g, CrashRepeatSafe.SafeF g [] medium_empty.
Proof. exact CrashRepeatSafe.SafeF_empty. Qed.
Theorem safe_medium_closed : forall g H base lf,
  length (g_locs g) < 65536 -> NoDup (g_locs g) -> (0 < g_sector g)%Z ->
  CrashRepeatSafe.SafeF g H base ->
  creach g (CrashRepeat.lf_cfg lf) base (CrashRepeat.lf_t0 lf) (CrashRepeat.lf_c lf) ->
  CrashRepeatSafe.SafeF g (H ++ [lf])
    (crash_of base (CrashRepeat.lf_c lf) (CrashRepeat.lf_n lf) (CrashRepeat.lf_ch lf)).
Proof. exact CrashRepeatSafe.SafeF_step. Qed.
Print Assumptions safe_medium_closed.

(** ---- no overwrite after restart, arbitrarily many lives ----
    [base] = the media of ANY history; a life of any length on it: once a data write (position [q]
    of its log) has touched a byte of a location that resolved at the restart, that record never
    resolves again, at whatever later point the life crashes and whatever is lost — the write went
    into a NEW block on the region, which the allocator handed out only after a state file without
    the old block was durable (writes into the restored block itself start at or above its restored
    write offset: [no_overwrite_after_restart_block]).  Equivalently: as long as the record can still
    resolve after a crash, no upload accepted after the restart has written into its bytes. *)
Theorem no_overwrite_after_restart : forall g H base cfg t0 c,
  length (g_locs g) < 65536 -> NoDup (g_locs g) -> (0 < g_sector g)%Z ->
  CrashRepeat.lives g H base -> creach g cfg base t0 c ->
  forall slot r i b, resolves g base slot r i ->
    nth_error (blocks (fst (restart (geom g) (m_state base)))) i = Some b ->
  forall q k lo hi z, nth_error (cs_log c) q = Some (IoData k (b_loc b) lo hi) ->
    (r_off r <= z < r_off r + r_size r)%Z -> (lo <= z < hi)%Z ->
  forall n ch, q < n -> forall slot' i', ~ resolves g (crash_of base c n ch) slot' r i'.
Proof. exact CrashRepeatSafe.no_overwrite_after_restart. Qed.
Print Assumptions no_overwrite_after_restart.

(** the region-reuse discipline and the partition of the device for a life on any medium whose state
    file restores duplicate-free seeds and regions (in particular the media of any history) *)
Theorem region_reused_only_after_durable_state_any_base : forall g cfg base t0 c,
  length (g_locs g) < 65536 -> NoDup (g_locs g) -> CrashRepeatShadow.base_ok g base ->
  creach g cfg base t0 c -> exists K, reuse_witness c K.
Proof. exact CrashRepeatShadow.region_reuse_any_base. Qed.
Print Assumptions region_reused_only_after_durable_state_any_base.

(** what can be the state file after a crash of a life that started with files: the file it started
    with (only while no directory fsync of the life completed) or the payload of a state write of the
    prefix — never the left-over state.new, never torn or stale content *)
Theorem state_file_survivor_any_base : forall (base : medium irec) (L : list (io irec)) ch x,
  shaped L -> m_state (crash_medium base L ch) = Some x ->
  (m_state base = Some x /\ dlw L = None) \/
  exists pos, nth_error L pos = Some (IoWriteNew x) /\ forall lw, dlw L = Some lw -> lw <= pos.
Proof. exact CrashReuseProofs.dir_survivor_any. Qed.
Print Assumptions state_file_survivor_any_base.

(** ---- non-vacuity: a concrete history (push a block, upload 20 bytes of key 5
    in two device writes, finalize + record in slot 3, one commit cycle of the
    put loop with the six directory operations), a crash after the directory
    fsync with nothing lost: the record resolves; a crash before the rename:
    nothing resolves although the record itself survived. ---- *)
Definition ex_g : geo := mkGeo [(0, 64); (64, 64); (128, 64)]%Z 16%Z 7%N.
Definition ex_cfg : config := mkConfig 10 3.
Definition ex_ok : ans := mkAns true 0.
Definition ex_tr : list cev :=
  [CPush; CPutStart 0 5%N 20%Z; CData 0 16%Z; CData 0 4%Z; CWriterDone 0 true; CFinalize 0 1001%N [IwNew 3];
   CStep TP ex_ok; CStep TP ex_ok; CTick 10; CStep TP (mkAns true 10); CStep TP ex_ok; CStep TP ex_ok;
   CStep TP ex_ok; CStep TP ex_ok; CStep TP ex_ok; CDir; CDir; CDir; CDir; CDir; CDir; CStep TP ex_ok; CStep TP ex_ok].
Definition ex_c : cst :=
  match crun ex_g ex_cfg (cinit ex_g medium_empty 0) ex_tr with Some c => c | None => cinit ex_g medium_empty 0 end.
Definition ex_all : choice := mkChoice (repeat true 8) (repeat true 8) 9 0.
Definition ex_rec : irec := mkIrec 1 0 5 0 20 1001 0.

Example ex_reachable : creach ex_g ex_cfg medium_empty 0 ex_c /\ length (cs_log ex_c) = 11.
Proof. split; [exists ex_tr|]; vm_compute; reflexivity. Qed.
Example ex_resolves_after_commit : resolves ex_g (crash_of medium_empty ex_c 11 ex_all) 3 ex_rec 0.
Proof. split; vm_compute; reflexivity. Qed.
Example ex_not_before_rename :
  slot_get (m_index (crash_of medium_empty ex_c 9 ex_all)) 3 None = Some ex_rec /\
  resolve_ref (fst (restart (geom ex_g) (m_state (crash_of medium_empty ex_c 9 ex_all)))) 0 1 0 1001 = None.
Proof. split; vm_compute; reflexivity. Qed.
(** the data write issued before the completed sync is durable: it survives the choice "lose everything" *)
Example ex_data_durable :
  length (m_data (crash_of medium_empty ex_c 11 (mkChoice [] [] 0 1))) = 2.
Proof. vm_compute. reflexivity. Qed.

(** ---- non-vacuity, two lives: the first life of the example crashes after its commit cycle with
    nothing lost; the second life (on those media) uploads 8 bytes of key 6 into the RESTORED block
    (at the restored write offset 20 rounded up to a sector: 32), finalizes with a record in slot 4
    and crashes before any state write, its data write surviving.  The record of the FIRST life
    still resolves (through the state file the second life started with); byte 19 of the region is
    owned by upload 0 of life 0, byte 32 by upload 0 of life 1 — on the raw medium both carry the
    per-life tag 0, which is why uploads are identified by (life, index); the new record does not
    resolve (its epoch is not in any state file). ---- *)
Definition ex_m1 : medium irec := crash_of medium_empty ex_c 11 ex_all.
Definition ex_tr2 : list cev :=
  [CPutStart 0 6%N 8%Z; CData 0 8%Z; CWriterDone 0 true; CFinalize 0 2002%N [IwNew 4]].
Definition ex_c2 : cst :=
  match crun ex_g ex_cfg (cinit ex_g ex_m1 50) ex_tr2 with Some c => c | None => cinit ex_g ex_m1 50 end.
Definition ex_lf1 : CrashRepeat.life := CrashRepeat.mkLife ex_cfg 0 ex_c 11 ex_all.
Definition ex_lf2 : CrashRepeat.life := CrashRepeat.mkLife ex_cfg 50 ex_c2 2 ex_all.
Definition ex_m2 : medium irec := crash_of ex_m1 ex_c2 2 ex_all.

Example ex2_history : CrashRepeat.lives ex_g (([] ++ [ex_lf1]) ++ [ex_lf2])
   (crash_of (crash_of medium_empty (CrashRepeat.lf_c ex_lf1) (CrashRepeat.lf_n ex_lf1) (CrashRepeat.lf_ch ex_lf1))
             (CrashRepeat.lf_c ex_lf2) (CrashRepeat.lf_n ex_lf2) (CrashRepeat.lf_ch ex_lf2)).
Proof.
  apply CrashRepeat.lives_snoc.
  - apply CrashRepeat.lives_snoc; [constructor|]. exists ex_tr. vm_compute. reflexivity.
  - exists ex_tr2. vm_compute. reflexivity.
Qed.
Example ex2_second_life_wrote : length (cs_log ex_c2) = 2 /\ length (m_data ex_m2) = 3.
Proof. split; vm_compute; reflexivity. Qed.
Example ex2_old_record_resolves : resolves ex_g ex_m2 3 ex_rec 0.
Proof. split; vm_compute; reflexivity. Qed.
Example ex2_owners :
  CrashRepeatSafe.towner (CrashRepeatSafe.hist_data [ex_lf1; ex_lf2]) (0, 64)%Z 19 None = Some (0, 0) /\
  CrashRepeatSafe.towner (CrashRepeatSafe.hist_data [ex_lf1; ex_lf2]) (0, 64)%Z 32 None = Some (1, 0) /\
  byte_owner (m_data ex_m2) (0, 64)%Z 19 None = Some 0 /\ byte_owner (m_data ex_m2) (0, 64)%Z 32 None = Some 0.
Proof. repeat split; vm_compute; reflexivity. Qed.
Example ex2_new_record_not_yet :
  slot_get (m_index ex_m2) 4 None = Some (mkIrec 2 0 6 32 8 2002 0) /\
  resolve_ref (fst (restart (geom ex_g) (m_state ex_m2))) 0 2 0 2002 = None.
Proof. split; vm_compute; reflexivity. Qed.

(** ---- the monitor of Run/R02.v on the model (Run/R02Mon.v) ----
    Run/R02.v has no "run02 inp" that generates an observation ([tie_life] validates the
    implementation's own trace), so the usual "monitor silent on the model" is stated relationally.
    [R02Mon.model_get_obs g ver H m key o]: [o] is an answer the crash model admits for [Get key] right
    after the restart on the media [m] of history [H]: NOT_FOUND / UNAVAILABLE (location-map probing and
    refresh are not modelled: always possible), or a record of the key resolves and the bytes of its
    location are served — (1 key ver) when the location is exactly the allocation of ONE completed
    upload (life j, index k) of that key owning every byte of it ([R02Mon.designates]; [ver j k] = the
    version that upload carried), ANY payload otherwise (foreign bytes).  The monitor's [get_clauses]
    accepts every such answer: the foreign case is refuted by [repeated_crash], the good case needs only
    that the history's uploads are uploads the input attempted ([R02Mon.labelled]). *)
Theorem probe_get_silent_on_model : forall g ver H m opss key o,
  length (g_locs g) < 65536 -> NoDup (g_locs g) -> (0 < g_sector g)%Z ->
  CrashRepeat.lives g H m -> R02Mon.labelled ver H opss ->
  R02Mon.model_get_obs g ver H m key o -> get_clauses opss key o = [].
Proof.
  intros g ver H m opss key o G1 G2 G3.
  exact (R02Mon.probe_get_silent_on_model g ver H m opss key o (conj G1 (conj G2 G3))).
Qed.
Print Assumptions probe_get_silent_on_model.

Theorem probe_fm_silent_on_model : forall g m key o, R02Mon.model_fm_obs g m key o -> fm_clauses o = [].
Proof. exact R02Mon.probe_fm_silent_on_model. Qed.
Print Assumptions probe_fm_silent_on_model.

(** the foreign disjunct of the model observation is empty (this IS [repeated_crash], at the sx level) *)
Theorem model_get_obs_never_foreign : forall g ver H m key o,
  length (g_locs g) < 65536 -> NoDup (g_locs g) -> (0 < g_sector g)%Z ->
  CrashRepeat.lives g H m -> R02Mon.model_get_obs g ver H m key o ->
  o = L [A 5%Z] \/ o = L [A 14%Z] \/
  exists slot r i b j k, resolves g m slot r i /\ Z.of_N (r_key r) = key /\
    nth_error (blocks (fst (restart (geom g) (m_state m)))) i = Some b /\
    R02Mon.designates H (b_loc b) r j k /\ o = L [A 0%Z; L [A 1%Z; A key; A (ver j k)]].
Proof.
  intros g ver H m key o G1 G2 G3.
  exact (R02Mon.model_get_obs_never_foreign g ver H m key o (conj G1 (conj G2 G3))).
Qed.
Print Assumptions model_get_obs_never_foreign.

(** on a non-empty location "one completed upload with exactly this allocation owns every byte"
    determines the upload ([towner] is a function), and it is the upload of the record's key *)
Theorem owner_designates : forall g H m slot r i b j k,
  length (g_locs g) < 65536 -> NoDup (g_locs g) -> (0 < g_sector g)%Z ->
  CrashRepeat.lives g H m -> resolves g m slot r i ->
  nth_error (blocks (fst (restart (geom g) (m_state m)))) i = Some b -> (0 < r_size r)%Z ->
  R02Mon.owned_by H (b_loc b) r j k -> R02Mon.designates H (b_loc b) r j k.
Proof.
  intros g H m slot r i b j k G1 G2 G3.
  exact (R02Mon.owner_designates g H m slot r i b j k (conj G1 (conj G2 G3))).
Qed.
Print Assumptions owner_designates.

(** the probe list ((fm get) per key, key = position): the first component of [mon_life]'s clauses *)
Theorem probe_silent_on_model : forall g ver H m opss probe,
  length (g_locs g) < 65536 -> NoDup (g_locs g) -> (0 < g_sector g)%Z ->
  CrashRepeat.lives g H m -> R02Mon.labelled ver H opss ->
  R02Mon.indexed (R02Mon.model_probe_obs g ver H m) 0%Z probe ->
  flat_map (fun kp => fm_clauses (sx_nth (snd kp) 0) ++ get_clauses opss (fst kp) (sx_nth (snd kp) 1))
           (zip_index 0%Z probe) = [].
Proof.
  intros g ver H m opss probe G1 G2 G3.
  exact (R02Mon.probe_silent_on_model g ver H m opss probe (conj G1 (conj G2 G3))).
Qed.
Print Assumptions probe_silent_on_model.

(** [mon_life] decomposed: nothing is reported iff the node is not abnormal, its probe / final / opres
    components (depth >= 1) are empty, and every experiment's subtree reports nothing *)
Theorem mon_life_nil_iff : forall f d opss ing obs,
  mon_life (S f) d opss ing obs = [] <->
  abnormal obs = false /\
  (d <> 0 -> R02Mon.probe_clauses (sx_nth ing 0 :: opss) obs = [] /\
             R02Mon.final_clauses (sx_nth ing 0 :: opss) obs = [] /\
             R02Mon.opres_clauses (sx_nth ing 0 :: opss) (sx_nth ing 0) obs = []) /\
  Forall (fun eo => mon_life f (S d) (sx_nth ing 0 :: opss) (sx_nth (fst eo) 6) (sx_nth (snd eo) 4) = [])
         (combine (sx_list (sx_nth ing 1)) (sx_list (sx_nth obs 6))).
Proof. exact R02Mon.mon_life_nil_iff. Qed.
Print Assumptions mon_life_nil_iff.

(** the same lemma for a list of [Get] answers (the shape of [final]) and for the answers to the
    (5 key) / (6 keys) operations of an op list ([opres]) — WHEN these are model observations of the
    restart medium, which a running store's answers are only if the life has made no model step *)
Theorem gets_silent_on_model : forall g ver H m opss gets,
  length (g_locs g) < 65536 -> NoDup (g_locs g) -> (0 < g_sector g)%Z ->
  CrashRepeat.lives g H m -> R02Mon.labelled ver H opss ->
  R02Mon.indexed (R02Mon.model_get_obs g ver H m) 0%Z gets ->
  flat_map (fun kg => get_clauses opss (fst kg) (snd kg)) (zip_index 0%Z gets) = [].
Proof.
  intros g ver H m opss gets G1 G2 G3.
  exact (R02Mon.gets_silent_on_model g ver H m opss gets (conj G1 (conj G2 G3))).
Qed.
Print Assumptions gets_silent_on_model.

Theorem opres_silent_on_model : forall g ver H m opss ops obs,
  length (g_locs g) < 65536 -> NoDup (g_locs g) -> (0 < g_sector g)%Z ->
  CrashRepeat.lives g H m -> R02Mon.labelled ver H opss ->
  Forall (R02Mon.model_opres_obs g ver H m) (combine (sx_list ops) (sx_list (sx_nth obs 3))) ->
  R02Mon.opres_clauses opss ops obs = [].
Proof.
  intros g ver H m opss ops obs G1 G2 G3.
  exact (R02Mon.opres_silent_on_model g ver H m opss ops obs (conj G1 (conj G2 G3))).
Qed.
Print Assumptions opres_silent_on_model.

(** PARTIAL (probe component; final / opres assumed, or of a life without a model step).
    [R02Mon.model_tree g ver d H m opss ing obs]: the node at depth [d] is not abnormal; at depth >= 1 its
    probe list consists of model observations for the history [H] (d lives) and its media [m]; its
    [final] / [opres] components are ASSUMED clean — reads in a running store after the restart, for
    which the crash model has no observation function (no read event, no volatile view of the data
    device; a Get may refresh, so a life without uploads is not quiescent either) — or are model
    observations of the restart medium (a life that made no model step); every experiment is a crash
    of a model life [lf] on [m] — any reachable state, any log prefix, any loss choice — whose uploads
    the node's op list attempted, and the subtree is a model tree for [H ++ [lf]] on the media that
    crash leaves.  On such a tree the monitor reports nothing. *)
Theorem mon02_silent_on_model_partial : forall g ver fuel ing obs,
  length (g_locs g) < 65536 -> NoDup (g_locs g) -> (0 < g_sector g)%Z ->
  R02Mon.model_tree g ver 0 [] medium_empty [] ing obs -> mon_life fuel 0 [] ing obs = [].
Proof.
  intros g ver fuel ing obs G1 G2 G3.
  exact (R02Mon.mon02_silent_on_model_partial g ver (conj G1 (conj G2 G3)) fuel ing obs).
Qed.
Print Assumptions mon02_silent_on_model_partial.

Theorem mon_life_silent_on_model_tree : forall g ver fuel d H m opss ing obs,
  length (g_locs g) < 65536 -> NoDup (g_locs g) -> (0 < g_sector g)%Z ->
  CrashRepeat.lives g H m -> R02Mon.labelled ver H opss -> R02Mon.model_tree g ver d H m opss ing obs ->
  mon_life fuel d opss ing obs = [].
Proof.
  intros g ver fuel d H m opss ing obs G1 G2 G3.
  exact (R02Mon.mon_life_silent_on_model_tree g ver (conj G1 (conj G2 G3)) fuel d H m opss ing obs).
Qed.
Print Assumptions mon_life_silent_on_model_tree.

(** ---- non-vacuity of the model observations: the two-life history above.  Life 0 uploaded version 0 of
    key 5, life 1 version 1 of key 6 ([ex_ver]).  After the second crash [Get 5] may be served, and
    then with exactly (1 5 0): record [ex_rec] (slot 3) resolves to block 0 and bytes 0..19 of its
    region are all owned by upload 0 of life 0 although life 1 wrote into the same block. ---- *)
Definition ex_ver (j k : nat) : Z := Z.of_nat j.
Definition ex_blk : binfo :=
  match nth_error (blocks (fst (restart (geom ex_g) (m_state ex_m2)))) 0 with Some b => b | None => mkBinfo (0, 0)%Z 0%Z 0%Z 0%Z 0 end.

Lemma ex_designates H : nth_error H 0 = Some ex_lf1 ->
  (forall n, n < 20 ->
     CrashRepeatSafe.towner (CrashRepeatSafe.hist_data H) (0, 64)%Z (Z.of_nat n) None = Some (0, 0)) ->
  R02Mon.designates H (0, 64)%Z ex_rec 0 0.
Proof.
  intros H0 Hown. exists ex_lf1. eexists. split; [exact H0|]. split; [vm_compute; reflexivity|].
  repeat (split; [vm_compute; reflexivity|]).
  intros z Hz. change (r_off ex_rec) with 0%Z in Hz. change (r_size ex_rec) with 20%Z in Hz.
  rewrite <- (Z2Nat.id z) by lia. apply Hown. lia.
Qed.

Lemma ex2_designates : R02Mon.designates [ex_lf1; ex_lf2] (0, 64)%Z ex_rec 0 0.
Proof.
  apply ex_designates; [reflexivity|]. intros n Hn.
  do 20 (destruct n as [|n]; [vm_compute; reflexivity|]). lia.
Qed.

Example ex2_get_model_obs :
  R02Mon.model_get_obs ex_g ex_ver [ex_lf1; ex_lf2] ex_m2 5 (L [A 0; L [A 1; A 5; A 0]])%Z.
Proof.
  change (L [A 0; L [A 1; A 5; A 0]])%Z with (L [A 0; L [A 1; A 5; A (ex_ver 0 0)]])%Z.
  apply (R02Mon.mgo_served ex_g ex_ver [ex_lf1; ex_lf2] ex_m2 5%Z 3 ex_rec 0 ex_blk 0 0).
  - exact ex2_old_record_resolves.
  - reflexivity.
  - vm_compute. reflexivity.
  - change (b_loc ex_blk) with (0, 64)%Z. exact ex2_designates.
Qed.
(** … and the monitor accepts it for every op list in which that upload occurs *)
Example ex2_get_model_obs_accepted :
  get_clauses [L [L [A 1; A 6; A 1]]; L [L [A 1; A 5; A 0]]]%Z 5 (L [A 0; L [A 1; A 5; A 0]])%Z = [].
Proof. vm_compute. reflexivity. Qed.

(** ---- non-vacuity of [model_tree]: a three-level observation tree over the same two-life history.
    Life 0 runs op list ((1 5 0)) and crashes (experiment 0), life 1 is probed for keys 0..6 — key 5 is
    served with (1 5 0), everything else misses —, runs ((1 6 1)), is read back (final: keys 5 and 6
    served) and crashes; life 2 is probed: key 5 still served, key 6 lost (its record does not resolve,
    [ex2_new_record_not_yet]).  The tree is a model tree, so the monitor is silent on it — and
    [vm_compute] of the monitor agrees. ---- *)
Definition ex_miss (k : Z) : sx := L [L [A 0; L [A k]]; L [A 5]]%Z.
Definition ex_hit5 : sx := L [L [A 0; L []]; L [A 0; L [A 1; A 5; A 0]]]%Z.
Definition ex_probe : sx := L [ex_miss 0; ex_miss 1; ex_miss 2; ex_miss 3; ex_miss 4; ex_hit5; ex_miss 6]%Z.
Definition ex_gen2 : sx := L [L []; L []].
Definition ex_gen1 : sx := L [L [L [A 1; A 6; A 1]]; L [L [A 0; A 0; L []; L []; A 0; A 0; ex_gen2]]]%Z.
Definition ex_gen0 : sx := L [L [L [A 1; A 5; A 0]]; L [L [A 0; A 0; L []; L []; A 9; A 0; ex_gen1]]]%Z.
Definition ex_final2 : sx :=
  L [L [A 5]; L [A 5]; L [A 5]; L [A 5]; L [A 5]; L [A 0; L [A 1; A 5; A 0]]; L [A 5]]%Z.
Definition ex_obs2 : sx := L [L []; L []; ex_probe; L []; ex_final2; L []; L []; L []].
Definition ex_final1 : sx :=
  L [L [A 5]; L [A 5]; L [A 5]; L [A 5]; L [A 5]; L [A 0; L [A 1; A 5; A 0]]; L [A 0; L [A 1; A 6; A 1]]]%Z.
Definition ex_obs1 : sx :=
  L [L []; L []; ex_probe; L [L [A 0]]; ex_final1; L []; L [L [A 2; L []; L []; A 0; ex_obs2]]; L []]%Z.
Definition ex_obs0 : sx :=
  L [L []; L []; L []; L [L [A 0]]; L []; L []; L [L [A 11; L []; L []; A 0; ex_obs1]]; L []]%Z.

Lemma ex1_designates : R02Mon.designates [ex_lf1] (0, 64)%Z ex_rec 0 0.
Proof.
  apply ex_designates; [reflexivity|]. intros n Hn.
  do 20 (destruct n as [|n]; [vm_compute; reflexivity|]). lia.
Qed.

Lemma ex_ups1 : cs_ups (CrashRepeat.lf_c ex_lf1) = [mkUp 5 0 0 20 20 (UpFin true)].
Proof. vm_compute. reflexivity. Qed.
Lemma ex_ups2 : cs_ups (CrashRepeat.lf_c ex_lf2) = [mkUp 6 0 32 8 8 (UpFin true)].
Proof. vm_compute. reflexivity. Qed.
Lemma ex_labelled1 : R02Mon.labelled ex_ver [ex_lf1] [L [L [A 1; A 5; A 0]]]%Z.
Proof.
  intros j lf k up Hj Hk. destruct j as [|j]; [|destruct j; discriminate]. injection Hj as <-.
  rewrite ex_ups1 in Hk. destruct k as [|k]; [|destruct k; discriminate]. injection Hk as <-.
  vm_compute. reflexivity.
Qed.
Lemma ex_labelled2 : R02Mon.labelled ex_ver [ex_lf1; ex_lf2] [L [L [A 1; A 6; A 1]]; L [L [A 1; A 5; A 0]]]%Z.
Proof.
  intros j lf k up Hj Hk. destruct j as [|[|j]]; [| |destruct j; discriminate]; injection Hj as <-.
  - rewrite ex_ups1 in Hk. destruct k as [|k]; [|destruct k; discriminate]. injection Hk as <-.
    vm_compute. reflexivity.
  - rewrite ex_ups2 in Hk. destruct k as [|k]; [|destruct k; discriminate]. injection Hk as <-.
    vm_compute. reflexivity.
Qed.

Ltac ex_probe_misses :=
  repeat match goal with
  | |- _ /\ _ => split
  | |- R02Mon.model_probe_obs _ _ _ _ _ _ => split
  | |- R02Mon.model_fm_obs _ _ _ _ => apply R02Mon.mfo_missing
  | |- R02Mon.model_get_obs _ _ _ _ _ _ => apply R02Mon.mgo_miss
  | |- True => exact I
  end.

Lemma ex_blk_loc : b_loc ex_blk = (0, 64)%Z.
Proof. vm_compute. reflexivity. Qed.

Example ex_tree_model : R02Mon.model_tree ex_g ex_ver 0 [] medium_empty [] ex_gen0 ex_obs0.
Proof.
  apply R02Mon.mt_node; [reflexivity|intros Hd; exfalso; apply Hd; reflexivity|].
  constructor; [|constructor].
  exists ex_lf1. split; [exists ex_tr; vm_compute; reflexivity|]. split; [exact ex_labelled1|].
  (* life 1: history [ex_lf1], media ex_m1 *)
  apply R02Mon.mt_node; [reflexivity| |].
  - intros _. split; [|split; left; vm_compute; reflexivity].
    cbn [fst snd ex_obs1 ex_probe ex_miss ex_hit5 sx_nth sx_list nth R02Mon.indexed]. ex_probe_misses.
    + apply (R02Mon.mfo_present ex_g _ _ 3 ex_rec 0); [exact ex_resolves_after_commit|reflexivity].
    + apply (R02Mon.mgo_served ex_g ex_ver _ _ _ 3 ex_rec 0 ex_blk 0 0);
        [exact ex_resolves_after_commit|reflexivity|vm_compute; reflexivity|rewrite ex_blk_loc; exact ex1_designates].
  - constructor; [|constructor].
    exists ex_lf2. split; [exists ex_tr2; vm_compute; reflexivity|]. split; [exact ex_labelled2|].
    (* life 2: history [ex_lf1; ex_lf2], media ex_m2 *)
    apply R02Mon.mt_node; [reflexivity| |constructor].
    assert (Hserved : R02Mon.model_get_obs ex_g ex_ver (([] ++ [ex_lf1]) ++ [ex_lf2])
                        (crash_of (crash_of medium_empty (CrashRepeat.lf_c ex_lf1) (CrashRepeat.lf_n ex_lf1) (CrashRepeat.lf_ch ex_lf1))
                                  (CrashRepeat.lf_c ex_lf2) (CrashRepeat.lf_n ex_lf2) (CrashRepeat.lf_ch ex_lf2))
                        (0 + 1 + 1 + 1 + 1 + 1)%Z (L [A 0; L [A 1; A 5; A 0]])%Z).
    { apply (R02Mon.mgo_served ex_g ex_ver _ _ _ 3 ex_rec 0 ex_blk 0 0);
        [exact ex2_old_record_resolves|reflexivity|vm_compute; reflexivity|rewrite ex_blk_loc; exact ex2_designates]. }
    intros _. split; [|split; [right|left; vm_compute; reflexivity]].
    + cbn [fst snd ex_obs1 ex_obs2 ex_probe ex_miss ex_hit5 sx_nth sx_list nth R02Mon.indexed]. ex_probe_misses.
      * apply (R02Mon.mfo_present ex_g _ _ 3 ex_rec 0); [exact ex2_old_record_resolves|reflexivity].
      * exact Hserved.
    + cbn [fst snd ex_obs1 ex_obs2 ex_final2 sx_nth sx_list nth R02Mon.indexed]. ex_probe_misses. exact Hserved.
Qed.
Example ex_tree_silent : mon_life 6 0 [] ex_gen0 ex_obs0 = [].
Proof.
  apply (mon02_silent_on_model_partial ex_g ex_ver); [apply Nat.ltb_lt; vm_compute; reflexivity| |reflexivity|].
  - repeat (constructor; [cbn [In]; intuition discriminate|]). constructor.
  - exact ex_tree_model.
Qed.
(** the monitor is not silent by construction: the same tree with foreign bytes served for key 5 after
    the second restart is reported (clause 1) *)
Definition ex_probe_bad : sx :=
  L [ex_miss 0; ex_miss 1; ex_miss 2; ex_miss 3; ex_miss 4; L [L [A 0; L []]; L [A 0; L [A 2; A 20; L []]]]; ex_miss 6]%Z.
Definition ex_obs0_bad : sx :=
  L [L []; L []; L []; L [L [A 0]]; L []; L [];
     L [L [A 11; L []; L []; A 0;
           L [L []; L []; ex_probe; L [L [A 0]]; ex_final1; L [];
              L [L [A 2; L []; L []; A 0; L [L []; L []; ex_probe_bad; L []; L []; L []; L []; L []]]]; L []]]]; L []]%Z.
Example ex_tree_wrong_bytes_caught :
  mon_life 6 0 [] ex_gen0 ex_obs0 = [] /\ mon_life 6 0 [] ex_gen0 ex_obs0_bad = [1%Z].
Proof. split; vm_compute; reflexivity. Qed.
