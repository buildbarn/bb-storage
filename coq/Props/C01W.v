(** C01W / C05W — sub-checks of C01 and C05: the [local] backend as wired by
    the real configuration constructor.  Statements only; proofs in
    Store/WiringProofs.v and Run/R01WProofs.v.

    Object: [wire] (Store/Wiring.v), the configuration of Store/Model.v that a
    LocalBlobAccessConfiguration message denotes under the CAS or the AC
    creator ([None] = refused), and the C01 / C05 monitors applied to the
    store model at that configuration. *)
From Coq Require Import List NArith ZArith Bool Arith.
From BBS Require Import Common.Sx Store.Model Store.Wf Store.WfTids Store.Wiring Store.WiringProofs.
From BBS Require Import Run.RStore Run.R01 Run.R05 Run.R01W Run.R01WProofs.
Import ListNotations.

(** every accepted, sane configuration denotes a well-formed store: all store
    theorems of C01, C04, C05, C08, C10 apply to it *)
Theorem accepted_configuration_is_well_formed : forall wi c,
  wire wi = Some c -> wiring_sane wi = true -> wf_config c = true.
Proof. exact wire_wf. Qed.
Print Assumptions accepted_configuration_is_well_formed.

(** the retention parameters of the store are the configured counts; a
    block device is divided into spare + old + current + new regions *)
Theorem wired_retention_parameters : forall wi c, wire wi = Some c ->
  c_old c = wi_old wi /\ c_cur c = wi_cur wi /\ c_new c = wi_new wi /\
  (wi_device wi = true -> c_nblocks c = (wi_spare wi + wi_old wi + wi_cur wi + wi_new wi)%nat).
Proof. exact wire_retention. Qed.
Print Assumptions wired_retention_parameters.

(** growth policy and key format follow the storage type; hierarchical
    access exists for the CAS only and keys then carry the instance name *)
Theorem wired_storage_type : forall wi c, wire wi = Some c ->
  c_mutable c = wi_ac wi /\
  (c_hier c = true -> wi_ac wi = false /\ c_inst_keys c = true) /\
  (c_hier c = false -> c_inst_keys c = wi_ac wi).
Proof. exact wire_storage_type. Qed.
Print Assumptions wired_storage_type.

Theorem wired_blocks_fit_device : forall wi c, wire wi = Some c -> wi_device wi = true ->
  (c_bs c * N.of_nat (c_nblocks c) <= wi_sector_size wi * wi_sector_count wi)%N.
Proof. exact wire_blocks_fit_device. Qed.
Print Assumptions wired_blocks_fit_device.

(** the refusals *)
Theorem refuses_hierarchical_action_cache : forall wi, wi_ac wi = true -> wi_hier wi = true -> wire wi = None.
Proof. exact wire_refuses_ac_hierarchical. Qed.
Print Assumptions refuses_hierarchical_action_cache.
Theorem refuses_action_cache_with_several_new_blocks : forall wi, wi_ac wi = true -> wi_new wi <> 1%nat -> wire wi = None.
Proof. exact wire_refuses_ac_several_new. Qed.
Print Assumptions refuses_action_cache_with_several_new_blocks.
Theorem refuses_more_than_100_blocks : forall wi, wi_device wi = true -> (100 < wi_block_count wi)%nat -> wire wi = None.
Proof. exact wire_refuses_too_many_blocks. Qed.
Print Assumptions refuses_more_than_100_blocks.
Theorem refuses_device_smaller_than_block_count : forall wi,
  wi_device wi = true -> (wi_sector_count wi < N.of_nat (wi_block_count wi))%N -> wire wi = None.
Proof. exact wire_refuses_tiny_device. Qed.
Print Assumptions refuses_device_smaller_than_block_count.

(** C01 and C05 (clauses 1-3) on the wired store: for every accepted sane
    configuration, all object contents, name trees and well-formed schedules,
    the monitors that judge the real constructor's store report nothing on
    the model's own observations *)
Theorem mon01W_silent_on_model : forall inp w,
  wired_world inp = Some w -> wiring_sane (dec_wiring (sx_nth inp 0)) = true -> wf_anc w = true ->
  wf_ops w [] (dec_ops inp) = true -> wf_tids (dec_ops inp) = true ->
  mon01W w (dec_ops inp) (run01W inp) = [].
Proof. exact mon01W_silent. Qed.
Print Assumptions mon01W_silent_on_model.

Theorem mon05W_silent_on_model : forall inp w,
  wired_world inp = Some w -> wiring_sane (dec_wiring (sx_nth inp 0)) = true -> wf_anc w = true ->
  wf_ops w [] (dec_ops inp) = true -> wf_tids (dec_ops inp) = true ->
  mon05W w (dec_ops inp) (run01W inp) = [].
Proof. exact mon05W_silent. Qed.
Print Assumptions mon05W_silent_on_model.

Theorem judges_report_no_violation_on_model : forall inp,
  (forall w, wired_world inp = Some w ->
     wiring_sane (dec_wiring (sx_nth inp 0)) = true /\ wf_anc w = true /\
     wf_ops w [] (dec_ops inp) = true /\ wf_tids (dec_ops inp) = true) ->
  sx_nth (judge01W inp (run01W inp)) 1 = of_bool false /\
  sx_nth (judge05W inp (run01W inp)) 1 = of_bool false.
Proof. exact judge01W_no_violation_on_model. Qed.
Print Assumptions judges_report_no_violation_on_model.

(** C08's quarantine monitor on the wired store (sub-check C08W): silent on the
    model for every accepted configuration and ALL schedules, corruption
    events included *)
Theorem mon08W_silent_on_model : forall inp w,
  wired_world inp = Some w -> mon08W w (dec_ops inp) (run01W inp) = [].
Proof. exact mon08W_silent. Qed.
Print Assumptions mon08W_silent_on_model.

(** non-vacuity: a CAS store on a block device (2 spare, 1 old, 2 current, 3
    new regions; 4096-byte sectors, 35 of them) and an in-memory Action Cache *)
Definition wiA : wiring := {| wi_ac := false; wi_hier := true; wi_old := 1; wi_cur := 2; wi_new := 3; wi_device := true;
  wi_spare := 2; wi_block_size := 0; wi_sector_size := 4096; wi_sector_count := 35 |}.
Definition wiB : wiring := {| wi_ac := true; wi_hier := false; wi_old := 2; wi_cur := 1; wi_new := 1; wi_device := false;
  wi_spare := 0; wi_block_size := 64; wi_sector_size := 0; wi_sector_count := 0 |}.
Example wired_examples :
  wire wiA = Some {| c_bs := 16384; c_old := 1; c_cur := 2; c_new := 3; c_mutable := false; c_nblocks := 8;
                     c_hier := true; c_inst_keys := true; c_validate := true |} /\ wiring_sane wiA = true /\
  wire wiB = Some {| c_bs := 64; c_old := 2; c_cur := 1; c_new := 1; c_mutable := true; c_nblocks := 0;
                     c_hier := false; c_inst_keys := true; c_validate := false |} /\ wiring_sane wiB = true.
Proof. vm_compute. repeat split. Qed.
