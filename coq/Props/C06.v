(** C06 — Index lookups are sound; entries are displaced oldest-first, never
    silently.  The statements; the proofs are in the files of Index/ and in
    Run/R06Proofs.v.

    Every theorem is about the model Index/Klm.v of HashingKeyLocationMap for
    an ARBITRARY key type with decidable equality, an ARBITRARY slot function
    [slot k a < n] (any hash initialisation, any collisions, any table size n),
    arbitrary attempt limits [maxGet]/[maxPut], and ALL histories of
    Put/Get/PopFront/PushBack from the empty table ([run], by induction). *)
From Coq Require Import List NArith.
From BBS Require Import Index.Klm Index.KlmProofs Index.KlmFrame Index.KlmFnv Index.KlmFnvProofs Index.RecordCodec Index.RecordCodecProofs.
Import ListNotations.
Local Open Scope nat_scope.

Section C06.
  Variable key : Type.
  Variable key_eqb : key -> key -> bool.
  Hypothesis key_eqb_spec : forall a b, key_eqb a b = true <-> a = b.
  Variable n : nat.
  Variable slot : key -> nat -> nat.
  Hypothesis slot_lt : forall k a, slot k a < n.
  Variables maxGet maxPut : nat.

  Notation run := (run key key_eqb slot maxGet maxPut).
  Notation lookup := (lookup key key_eqb slot maxGet).
  Notation put := (put key key_eqb slot maxGet maxPut).
  Notation Reachable := (Reachable key key_eqb n slot maxGet maxPut).
  Notation Inv := (Inv key n slot).
  Notation klm_put := (klm_put key key_eqb slot maxGet maxPut).
  Notation discards := (discards key key_eqb slot maxGet maxPut).

  (** The probe-order invariant ("everything further along a probe sequence is
      older"; every record sits at its own slot; no record points beyond the
      newest block) holds initially and is preserved by Put, by releasing a
      block and by adding one; hence in every reachable state. *)
  Theorem invariant_initial : forall lo hi, Inv lo hi (repeat None n).
  Proof. exact (inv_empty key n slot). Qed.

  Theorem invariant_put : forall lo hi t k l,
    Inv lo hi t -> valid lo hi l = true -> Inv lo hi (fst (put lo hi t k l)).
  Proof. exact (put_inv key key_eqb n slot slot_lt maxGet maxPut). Qed.

  Theorem invariant_release : forall lo hi t, Inv lo hi t -> Inv (N.succ lo) hi t.
  Proof. exact (release_inv key n slot). Qed.

  Theorem invariant_grow : forall lo hi t, Inv lo hi t -> Inv lo (N.succ hi) t.
  Proof. exact (grow_inv key n slot). Qed.

  Theorem invariant_reachable : forall s, Reachable s -> Inv (lo s) (hi s) (tbl s).
  Proof. exact (reachable_inv key key_eqb n slot slot_lt maxGet maxPut). Qed.

  (** get_sound: a lookup returns only a location that was stored for exactly
      that key (never another key's), lying in a block that has not been
      released. *)
  Theorem get_sound : forall h0 h s k l,
    run (klm_empty key n h0) h = Some s -> lookup s k = Some l ->
    In (OPut k l) h /\ valid (lo s) (hi s) l = true.
  Proof. exact (get_sound_thm key key_eqb key_eqb_spec n slot maxGet maxPut). Qed.

  (** release_exact: releasing a block removes exactly the entries that point
      into it: every lookup is what it was, filtered by the new block window. *)
  Theorem release_exact : forall s k,
    Reachable s ->
    lookup (klm_release key s) k
    = match lookup s k with
      | Some l => if valid (N.succ (lo s)) (hi s) l then Some l else None
      | None => None
      end.
  Proof.
    intros s k HR. apply (release_exact_state key key_eqb key_eqb_spec n slot maxGet).
    exact (invariant_reachable s HR).
  Qed.

  (** Adding a block changes no lookup. *)
  Theorem grow_frame : forall s k, Reachable s -> lookup (klm_grow key s) k = lookup s k.
  Proof. intros s k HR. apply (grow_frame_state key key_eqb n slot maxGet). exact (invariant_reachable s HR). Qed.

  (** victim_not_newer: the record a Put reports as discarded (TooManyAttempts
      outcome / too_many_iterations counter) is never newer than the entry
      being stored.  (Any table, not only reachable ones.) *)
  Theorem victim_not_newer : forall lo hi t k l t' o d,
    put lo hi t k l = (t', o) -> discarded o = Some d -> older l (rloc d) = false.
  Proof.
    intros lo hi t k l t' o d H D. apply (put_spec key key_eqb slot maxGet maxPut) in H.
    exact (put_loop_dropped key key_eqb slot maxGet lo hi l _ _ _ _ d H (older_irrefl l) D).
  Qed.

  (** Records of one key at different probe attempts are strictly ordered by
      age in every reachable state (no ties: IsOlder is strict), which is why
      "the newest" is well defined although sizes are not compared. *)
  Theorem strict_reachable : forall s, Reachable s ->
    forall k a1 l1 a2 l2,
      cand key slot (lo s) (hi s) (tbl s) k a1 l1 -> cand key slot (lo s) (hi s) (tbl s) k a2 l2 ->
      a1 < a2 -> older l2 l1 = true.
  Proof. intros s HR. apply (reachable_inv2 key key_eqb key_eqb_spec n slot slot_lt maxGet maxPut s HR). Qed.

  (** put_frame: storing an entry leaves the result for every other key
      unchanged, except for the key of the record the Put reports as discarded
      (at most one per Put: [discarded o] is one record or none). *)
  Theorem put_frame : forall s k l s' o k',
    Reachable s -> valid (lo s) (hi s) l = true -> klm_put s k l = (s', o) ->
    k' <> k -> (forall d, discarded o = Some d -> rkey d <> k') ->
    lookup s' k' = lookup s k'.
  Proof.
    intros s k l s' o k' HR. apply (put_frame_state key key_eqb key_eqb_spec n slot slot_lt maxGet maxPut).
    exact (reachable_inv2 key key_eqb key_eqb_spec n slot slot_lt maxGet maxPut s HR).
  Qed.

  (** put_self: unless the Put reports a discard of a record of the key itself,
      the key now maps to the newer of its previous location and the new one
      (a tie keeps the previous one). *)
  Theorem put_self : forall s k l s' o,
    Reachable s -> valid (lo s) (hi s) l = true -> klm_put s k l = (s', o) ->
    (forall d, discarded o = Some d -> rkey d <> k) ->
    lookup s' k = Some (match lookup s k with
                        | Some l0 => if older l0 l then l else l0
                        | None => l
                        end).
  Proof.
    intros s k l s' o HR V P Hv.
    destruct (put_own_key key key_eqb key_eqb_spec n slot slot_lt maxGet maxPut s k l s' o
                (reachable_inv2 key key_eqb key_eqb_spec n slot slot_lt maxGet maxPut s HR) V P) as [H|[_ [d [Hd E]]]].
    - exact H.
    - destruct (Hv d Hd E).
  Qed.

  (** victim_falls_back: whatever a Put leaves for ANY key (victim or not) is
      the new location (only for the key stored), or what the key had before,
      or a strictly older location that was already in the table (valid and
      stored for that key by get_sound) -- or nothing. *)
  Theorem victim_falls_back : forall s k l s' o k' x,
    Reachable s -> valid (lo s) (hi s) l = true -> klm_put s k l = (s', o) ->
    lookup s' k' = Some x ->
    (k' = k /\ x = l) \/
    exists prev, lookup s k' = Some prev /\ (x = prev \/ older x prev = true).
  Proof.
    intros s k l s' o k' x HR. apply (put_falls_back_state key key_eqb key_eqb_spec n slot slot_lt maxGet maxPut).
    exact (reachable_inv2 key key_eqb key_eqb_spec n slot slot_lt maxGet maxPut s HR).
  Qed.

  (** no_discard_newest: if no discard was reported in the history, the index
      IS the map key -> newest valid stored location (refinement to
      [amap_run], the fold of [amap_put] over the Puts of the history). *)
  Theorem no_discard_newest : forall h0 h s,
    run (klm_empty key n h0) h = Some s -> discards (klm_empty key n h0) h = [] ->
    forall k, lookup s k = amap_get key (lo s) (hi s) (amap_run key key_eqb (amap_empty key) h) k.
  Proof. exact (no_discard_newest_thm key key_eqb key_eqb_spec n slot slot_lt maxGet maxPut). Qed.
End C06.

Print Assumptions invariant_initial.
Print Assumptions invariant_put.
Print Assumptions invariant_release.
Print Assumptions invariant_grow.
Print Assumptions invariant_reachable.
Print Assumptions get_sound.
Print Assumptions release_exact.
Print Assumptions grow_frame.
Print Assumptions victim_not_newer.
Print Assumptions strict_reachable.
Print Assumptions put_frame.
Print Assumptions put_self.
Print Assumptions victim_falls_back.
Print Assumptions no_discard_newest.


(** The theorems apply to the real slot function (FNV-1a over key bytes and
    little-endian attempt, any hash initialisation, modulo any positive number
    of records): e.g. soundness and the refinement. *)
Theorem get_sound_fnv : forall init n maxGet maxPut h0 h s k l,
  run bkey bkey_eqb (fnv_slot init n) maxGet maxPut (klm_empty bkey n h0) h = Some s ->
  lookup bkey bkey_eqb (fnv_slot init n) maxGet s k = Some l ->
  In (OPut k l) h /\ valid (lo s) (hi s) l = true.
Proof. exact (fun init n => get_sound bkey bkey_eqb (fun a b => bkey_eqb_spec a b) n (fnv_slot init n)). Qed.
Print Assumptions get_sound_fnv.

Theorem no_discard_newest_fnv : forall init n maxGet maxPut, (0 < n)%nat -> forall h0 h s,
  run bkey bkey_eqb (fnv_slot init n) maxGet maxPut (klm_empty bkey n h0) h = Some s ->
  discards bkey bkey_eqb (fnv_slot init n) maxGet maxPut (klm_empty bkey n h0) h = [] ->
  forall k, lookup bkey bkey_eqb (fnv_slot init n) maxGet s k
            = amap_get bkey (lo s) (hi s) (amap_run bkey bkey_eqb (amap_empty bkey) h) k.
Proof.
  exact (fun init n maxGet maxPut Hn =>
           no_discard_newest bkey bkey_eqb (fun a b => bkey_eqb_spec a b) n (fnv_slot init n)
                             (fun k a => fnv_slot_lt init n k a Hn) maxGet maxPut).
Qed.
Print Assumptions no_discard_newest_fnv.

(** codec_roundtrip: a well-formed record written in the 66-byte layout of the
    block-device backed array (widths regenerated from the source) is read back
    unchanged under the same epoch hash seed. *)
Theorem codec_roundtrip : forall seed r, wf_drec r -> decode seed (encode seed r) = Some r.
Proof. exact codec_roundtrip_thm. Qed.
Print Assumptions codec_roundtrip.

(** stale_seed_invalid: a record written under one epoch hash seed is rejected
    under any other 64-bit seed (restarts after crashes reuse epoch ids with a
    different seed): FNV-1a with the source's prime is injective in its start
    value. *)
Theorem stale_seed_invalid : forall seed seed' r,
  wf_drec r -> (seed < 2 ^ 64)%N -> (seed' < 2 ^ 64)%N -> seed <> seed' ->
  decode seed' (encode seed r) = None.
Proof. exact stale_seed_invalid_thm. Qed.
Print Assumptions stale_seed_invalid.

(** Non-vacuity: keys 0,1,2 all probing slots 0 then 1 of a two-record table
    (total collision), maxGet 2, maxPut 3.  Three Puts of increasingly new
    locations: the third displaces both others and the oldest is reported as
    discarded (TooManyAttempts); the victim (key 0) falls back to nothing, key 1
    keeps its location, key 2 has the new one; releasing block 0 then removes
    exactly the entries in block 0. *)
Definition ex_slot (k a : nat) : nat := Nat.modulo a 2.
Definition ex_loc (b o : N) : loc := {| blk := b; off := o; size := 1 |}.
Definition ex_hist : list (op nat) :=
  [OPut 0%nat (ex_loc 0 0); OPut 1%nat (ex_loc 0 1); OGrow; OPut 2%nat (ex_loc 1 0)].

Example ex_discard :
  exists s, run nat Nat.eqb ex_slot 2 3 (klm_empty nat 2 1) ex_hist = Some s
    /\ map rloc (discards nat Nat.eqb ex_slot 2 3 (klm_empty nat 2 1) ex_hist) = [ex_loc 0 0]
    /\ map (lookup nat Nat.eqb ex_slot 2 s) [0; 1; 2]%nat = [None; Some (ex_loc 0 1); Some (ex_loc 1 0)]
    /\ map (lookup nat Nat.eqb ex_slot 2 (klm_release nat s)) [0; 1; 2]%nat = [None; None; Some (ex_loc 1 0)].
Proof. eexists. vm_compute. repeat split; reflexivity. Qed.

(** a history without discards on a totally colliding three-record table
    (maxGet 3, maxPut 4): the third Put displaces two records, none is lost;
    the refinement's hypotheses are met and the lookups are the newest stored
    locations. *)
Definition ex_slot3 (k a : nat) : nat := Nat.modulo a 3.
Example ex_no_discard :
  let h := [OPut 0%nat (ex_loc 0 0); OPut 1%nat (ex_loc 0 1); OPut 0%nat (ex_loc 0 2); OPut 1%nat (ex_loc 0 1)] in
  discards nat Nat.eqb ex_slot3 3 4 (klm_empty nat 3 1) h = []
  /\ exists s, run nat Nat.eqb ex_slot3 3 4 (klm_empty nat 3 1) h = Some s
      /\ map (lookup nat Nat.eqb ex_slot3 3 s) [0; 1]%nat = [Some (ex_loc 0 2); Some (ex_loc 0 1)]
      /\ map (amap_get nat (lo s) (hi s) (amap_run nat Nat.eqb (amap_empty nat) h)) [0; 1]%nat
         = [Some (ex_loc 0 2); Some (ex_loc 0 1)].
Proof. vm_compute. split; [reflexivity|]. eexists. repeat split; reflexivity. Qed.

Example ex_codec :
  let r := {| d_epoch := 7; d_bfl := 2; d_key := repeat 171%N 32; d_att := 3; d_off := 2 ^ 63 - 1; d_size := 5 |} in
  length (encode 99 r) = 66 /\ decode 99 (encode 99 r) = Some r /\ decode 98 (encode 99 r) = None.
Proof.
  intros r. assert (Hw : wf_drec r) by (repeat split; apply Forall_forall; intros b Hb; apply repeat_spec in Hb; subst b; reflexivity).
  split; [apply encode_length; reflexivity|]. split.
  - apply codec_roundtrip_thm. exact Hw.
  - apply stale_seed_invalid_thm; [exact Hw|reflexivity|reflexivity|discriminate].
Qed.

(** ** The monitor is silent on the model

    [mon06] (the property as a decidable check on an observation: soundness,
    frame with at most one victim per reported discard, victims fall back to
    older locations, victims are not newer than the entry stored, the key
    stored, exact release, refinement without discards; record round trip)
    never fires on what the model itself predicts, for every well-formed input
    [wf06]:
    - history cases: the operations respect the block window ([wf_ops]: a Put
      names a block in [lo, hi), PopFront finds a block, kinds are 0..3) --
      exactly what the harness validates; ANY table size (including 0), keys
      (equal byte strings under different indices, indices beyond the key
      list), attempt limits, hash initialisation;
    - codec cases: only when the monitor compares at all (same seed, no
      damaged byte): the key has 32 entries and attempt < 2^32, offset and
      size < 2^64 (epoch id, blocks-from-last and key "bytes" are arbitrary).
    Every hypothesis is necessary ([monitor_on_model_needs_*]); none of the
    counterexample inputs is accepted by the harness. *)
From BBS Require Import Common.Sx Common.SxFactsMA Index.MonSilentCodec Run.R06 Run.R06Proofs.

Theorem monitor_silent_on_model : forall inp, wf06 inp -> mon06 inp (run06 inp) = nil.
Proof. exact mon06_silent. Qed.
Print Assumptions monitor_silent_on_model.

(** the two model theorems behind clauses 4 and 5 (any slot function):
    a key whose location is newer than the one being stored keeps it, so a key
    whose lookup changes had a location that is not newer; the key stored ends
    with the newer of (previous, new) or -- only when a discard is reported --
    with what it had. *)
Theorem put_keeps_newer_locations :
  forall (key : Type) (key_eqb : key -> key -> bool), (forall a b, key_eqb a b = true <-> a = b) ->
  forall (n : nat) (slot : key -> nat -> nat), (forall k a, (slot k a < n)%nat) ->
  forall (maxGet maxPut : nat) (s : klm key) k l s' o k' p,
    InvS2 key n slot maxGet s -> valid (lo s) (hi s) l = true ->
    klm_put key key_eqb slot maxGet maxPut s k l = (s', o) ->
    lookup key key_eqb slot maxGet s k' = Some p -> older l p = true ->
    lookup key key_eqb slot maxGet s' k' = Some p.
Proof. exact put_newer_kept. Qed.
Print Assumptions put_keeps_newer_locations.

Theorem put_own_key_outcome :
  forall (key : Type) (key_eqb : key -> key -> bool), (forall a b, key_eqb a b = true <-> a = b) ->
  forall (n : nat) (slot : key -> nat -> nat), (forall k a, (slot k a < n)%nat) ->
  forall (maxGet maxPut : nat) (s : klm key) k l s' o,
    InvS2 key n slot maxGet s -> valid (lo s) (hi s) l = true ->
    klm_put key key_eqb slot maxGet maxPut s k l = (s', o) ->
    lookup key key_eqb slot maxGet s' k = Some (newest (lookup key key_eqb slot maxGet s k) l)
    \/ lookup key key_eqb slot maxGet s' k = lookup key key_eqb slot maxGet s k.
Proof.
  intros key key_eqb He n slot Hs maxGet maxPut s k l s' o HI V P.
  destruct (put_own_key key key_eqb He n slot Hs maxGet maxPut s k l s' o HI V P) as [H|[H _]]; [left|right]; exact H.
Qed.
Print Assumptions put_own_key_outcome.

Example monitor_on_model_needs_put_in_window :
  let inp := ex_hist 1 [L [A 0; A 0; A 5; A 0; A 1]]%Z in ~ wf06 inp /\ mon06 inp (run06 inp) = [5%Z].
Proof. exact mon06_needs_put_in_window. Qed.
Example monitor_on_model_needs_pop_with_block :
  let inp := ex_hist 0 [L [A 2]; L [A 3]; L [A 0; A 0; A 0; A 0; A 1]]%Z in
  ~ wf06 inp /\ mon06 inp (run06 inp) = [1%Z; 7%Z].
Proof. exact mon06_needs_pop_with_block. Qed.
Example monitor_on_model_needs_known_kinds :
  let inp := ex_hist 0 [L [A 4]; L [A 0; A 0; A 0; A 0; A 1]]%Z in
  ~ wf06 inp /\ mon06 inp (run06 inp) = [1%Z; 7%Z].
Proof. exact mon06_needs_known_kinds. Qed.
Example monitor_on_model_needs_key_32_bytes :
  let inp := ex_codec (List.repeat (A 7) 31) 0 0 0 in ~ wf06 inp /\ mon06 inp (run06 inp) = [8%Z].
Proof. exact mon06_needs_key_32_bytes. Qed.
Example monitor_on_model_needs_attempt_32_bits :
  let inp := ex_codec (List.repeat (A 7) 32) (2 ^ 32) 0 0 in ~ wf06 inp /\ mon06 inp (run06 inp) = [8%Z].
Proof. exact mon06_needs_attempt_32_bits. Qed.
Example monitor_on_model_needs_offset_64_bits :
  let inp := ex_codec (List.repeat (A 7) 32) 0 (2 ^ 64) 0 in ~ wf06 inp /\ mon06 inp (run06 inp) = [8%Z].
Proof. exact mon06_needs_offset_64_bits. Qed.
Example monitor_on_model_needs_size_64_bits :
  let inp := ex_codec (List.repeat (A 7) 32) 0 0 (2 ^ 64) in ~ wf06 inp /\ mon06 inp (run06 inp) = [8%Z].
Proof. exact mon06_needs_size_64_bits. Qed.
Example wf06_nonvacuous_history :
  wf06 (L [A 0; A 0; A 2; A 2; A 3; A 7; A 1; L [L [A 1]; L [A 2]; L [A 3]; L [A 1]];
           L [L [A 0; A 0; A 0; A 0; A 1]; L [A 0; A 1; A 0; A 1; A 1]; L [A 3]; L [A 0; A 2; A 1; A 0; A 1];
              L [A 1; A 3]; L [A 0; A 3; A 1; A 5; A 2]; L [A 2]; L [A 1; A 0]]]%Z).
Proof. exact wf06_hist_example. Qed.
Example wf06_nonvacuous_codec :
  wf06 (L [A 1; A (2 ^ 40); A (2 ^ 20); L (A 300 :: List.repeat (A 7) 31); A 1; A 2; A 3; A 7; A 7; A 66]%Z).
Proof. exact wf06_codec_example. Qed.

(** For the judge the driver runs: "agree" implies "no violation". *)
Theorem judge_agree_implies_no_violation : forall inp obs,
  wf06 inp -> judged_agree (judge06 inp obs) = true -> judged_violates (judge06 inp obs) = false.
Proof. exact judge06_agree_not_violates. Qed.
Print Assumptions judge_agree_implies_no_violation.
