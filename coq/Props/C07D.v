(** C07D — the directory-backed persistent state store.  Statements only; the
    proofs are in Persist/DirStoreProofs.v and Run/R07DProofs.v.

    Object: [write_call] (Persist/DirStore.v), the seven directory operations
    of WritePersistentState with an injected failure or a process kill at any
    of them, over a directory with a volatile and a durable name space;
    histories of calls, kills, power cuts and reads ([drun]); the monitor
    [mrun] that judges the real store on the same histories. *)
From Coq Require Import List ZArith Bool Arith.
From BBS Require Import Common.Sx Persist.DirStore Persist.DirStoreProofs Run.R07D Run.R07DProofs.
Import ListNotations.

(** C07 "transient failures of the state write are retried until they
    succeed": from ANY directory state - whatever earlier failed, killed or
    power-cut calls left behind, a stale state.new included - a call during
    which no operation fails returns OK. *)
Theorem fault_free_state_write_succeeds : forall s d, snd (fst (write_call s d 0 false)) = true.
Proof. exact fault_free_call_succeeds. Qed.
Print Assumptions fault_free_state_write_succeeds.

(** C02/C03/C04 "a state file ... has been durably written": when the call
    returns OK the new state is what a read returns, now and after a power
    cut, and no temporary file is left in either name space. *)
Theorem successful_state_write_is_durable : forall s d f s' log,
  write_call s d f false = (s', true, log) ->
  read_state s' = Some d /\ read_state (power s') = Some d /\ v_new s' = None /\ d_new s' = None.
Proof. exact successful_call_is_durable. Qed.
Print Assumptions successful_state_write_is_durable.

(** a failed or killed call is atomic: a read returns the previous state or
    the new one, and a power cut right after it returns what a power cut
    before it would have returned *)
Theorem failed_or_killed_state_write_is_atomic : forall s d f killed s' log,
  write_call s d f killed = (s', false, log) ->
  (read_state s' = read_state s \/ read_state s' = Some d) /\
  read_state (power s') = read_state (power s).
Proof. exact failed_or_killed_call_is_atomic. Qed.
Print Assumptions failed_or_killed_state_write_is_atomic.

Theorem state_write_operation_order : forall s d,
  snd (write_call s d 0 false) = [1; 2; 3; 4; 5; 6; 7]%Z.
Proof. exact call_operation_order. Qed.
Print Assumptions state_write_operation_order.

(** C07 "transient failures ... of the state write are retried until they
    succeed", over the real store's directory protocol: the syncer's retry loop
    ([retry_write]: the same state again until OK) ends after at most one attempt
    more than there were failed attempts - each failing at any operation - with
    the state committed and durable.  This discharges, for the directory-backed
    store, the assumption under which C07's main model treats the state store
    (an attempt without a fault succeeds). *)
Theorem retry_loop_commits : forall faults s d,
  fst (retry_write s d faults) = done_dir d /\ (snd (retry_write s d faults) <= S (length faults))%nat.
Proof. exact retry_commits. Qed.
Print Assumptions retry_loop_commits.

(** once a call returned OK, every read returns its state as long as no
    further call is attempted, across any number of power cuts *)
Theorem committed_state_survives_power_cuts : forall s d f log es,
  write_call s d f false = (done_dir d, true, log) -> forallb quiet es = true ->
  Forall (fun o => match o with ORead r => r = Some d | _ => True end) (drun (done_dir d) es).
Proof. exact committed_state_survives. Qed.
Print Assumptions committed_state_survives_power_cuts.

(** every history: calls with a failure at any operation, kills at any
    operation, power cuts, reads, in any order and number - a fault-free call
    returns OK (clause 1) and every read returns the state of the last call
    that returned OK or of a call attempted since (clause 2) *)
Theorem monitor_silent_on_every_history : forall es, m_viol (mrun m_init es (drun dir_empty es)) = [].
Proof. exact DirStoreProofs.monitor_silent_on_every_history. Qed.
Print Assumptions monitor_silent_on_every_history.

Theorem mon07D_silent_on_model : forall inp, mon07D inp (run07D inp) = [].
Proof. exact mon07D_silent. Qed.
Print Assumptions mon07D_silent_on_model.

(** non-vacuity: a kill after the temporary file was created, a restart, a
    fault-free call, a power cut, a read *)
Example stale_temporary_file_history :
  drun dir_empty [EKill 5 3; EWrite 6 0; EPower; ERead; EWrite 7 6; ERead; EPower; ERead]
  = [OKill [1; 2; 3]%Z; OWrite true [1; 2; 3; 4; 5; 6; 7]%Z; OPower; ORead (Some 6%Z);
     OWrite false [1; 2; 3; 4; 5; 6]%Z; ORead (Some 6%Z); OPower; ORead (Some 6%Z)].
Proof. vm_compute. reflexivity. Qed.
