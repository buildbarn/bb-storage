(** C01 — the local store returns exactly what was uploaded, or nothing.
    Statements only; the proofs are in Store/P01*.v.

    Object of the theorems: the executable model Store/Model.v of
    pkg/blobstore/local (block allocator with FIFO free list and use counts,
    volatile block list, OldCurrentNewLocationBlobMap, abstract newest-valid
    index, flat and hierarchical blob access in atomic steps) and the C01
    monitor Run/R01.v (the decidable check of the property that bin/check
    evaluates on the observations of the real Go code).  [mon01_model w es] is
    the violation list the monitor computes when it is fed the schedule [es]
    and the model's own observations; the theorems quantify over ALL worlds
    (all geometries, both allocators, both growth policies, flat keys with and
    without instance names, hierarchical access, validating and raw read
    factories, all object contents) and ALL schedules (any length, any
    interleaving at the model's step granularity, any upload data, corruption
    events included). *)
From Coq Require Import List NArith ZArith Bool.
From BBS Require Import Common.Sx Store.Model Store.Wf Store.WfTids Run.RStore Run.R01 Store.P01Defs Store.P01Inv Store.P01Final.
Import ListNotations.
Local Open Scope N_scope.

(** The monitor run of the check on the model's own output IS [mon01_model]
    (up to the final de-duplication of clause numbers). *)
Theorem monitor_on_model_is_mon01_model : forall inp : sx,
  mon01 inp (run_store inp) = dedupZ (mon01_model (dec_world inp) (dec_ops inp)).
Proof. reflexivity. Qed.
Print Assumptions monitor_on_model_is_mon01_model.

(** FULL-STRENGTH STATEMENT - REFUTED as stated, see the three
    Examples [full_statement_refuted_*] below: [wf_ops] does not force a
    thread id to denote one operation, and the monitor (like the harness)
    keys its bookkeeping by thread id.

      Theorem store_model_satisfies_C01 :
        forall (w : world) (es : list op),
          wf_world w = true -> wf_ops w [] es = true ->
          mon01_model w es = [].

    PROVED: the same statement for every schedule in which each operation
    start (OPutStart / OGetOpen / OGfcStart) uses a thread id that no earlier
    start event used ([wf_tids], Store/WfTids.v; the generator of the harness
    only produces such schedules).  No restriction on operations or
    configurations: Put/Get/FindMissing/GetFromComposite (direct and sliced),
    flat and hierarchical, in-memory and block-device allocators, corruption
    events.  All three clauses of the monitor: (1) every successful read
    returns exactly the content of the object asked for (validating store:
    always; raw store: until the first corruption event), (2) every successful
    read / reported presence is covered by a completed successful upload or a
    sliced composite read, (3) no negative integrity verdict before the first
    corruption event. *)
Theorem store_model_satisfies_C01_partial :
  forall (w : world) (es : list op),
    wf_world w = true -> wf_ops w [] es = true -> wf_tids es = true ->
    mon01_model w es = [].
Proof. exact P01_final. Qed.
Print Assumptions store_model_satisfies_C01_partial.

(** The data invariant behind it ([SInv], Store/P01Inv.v: counters, distinct
    uids / regions of listed blocks, zombies and the free list, use counts
    bounded below by the references of parked operations, allocations below
    the cursor and pairwise disjoint from every in-flight writer, every valid
    index entry and every pinned reader range holds the content of its object)
    holds initially and is preserved by every event other than OCorrupt, and
    such an event raises no negative verdict and reads correctly ([read_ok]).
    [step_wf] only constrains OGfcSlice on a parked flat composite read: the
    slices are slices of that read's parent (follows from wf_ops + wf_tids). *)
Theorem store_invariant_initial : forall w, wf_world w = true -> SInv w (init_state (w_cfg w)).
Proof. exact P01_init. Qed.
Print Assumptions store_invariant_initial.

Theorem store_invariant_step : forall w s e,
  wf_world w = true -> SInv w s -> is_corrupt e = false -> step_wf w s e ->
  SInv w (fst (step w s e)) /\ read_ok w s e (fst (step w s e)) (snd (step w s e)).
Proof. exact P01_step. Qed.
Print Assumptions store_invariant_step.

(** Clause 3 as a statement about the model alone: on a schedule without
    corruption events the store never reports a data-integrity error, and the
    final state satisfies the store invariant. *)
Theorem no_integrity_error_without_corruption :
  forall (w : world) (es : list op),
    wf_world w = true -> wf_ops w [] es = true -> wf_tids es = true ->
    forallb (fun e => negb (is_corrupt e)) es = true ->
    SInv w (fst (run w (init_state (w_cfg w)) es)) /\
    s_negs (fst (run w (init_state (w_cfg w)) es)) = 0%nat.
Proof. exact P01_no_negs. Qed.
Print Assumptions no_integrity_error_without_corruption.

Definition cfgA : config := {| c_bs := 16; c_old := 1; c_cur := 1; c_new := 1; c_mutable := false; c_nblocks := 0;
  c_hier := false; c_inst_keys := false; c_validate := false |}.
Definition wA : world := {| w_cfg := cfgA; w_objs := [[1;2;3;4]; [1;2]; [5;6;7;8]; [7;8]]; w_anc := [[0%nat]] |}.
(** (a) flat: the second OGfcStart with the busy thread id 1 is answered Bad
    but redirects wf_ops' [pending] entry of thread 1 to another parent. *)
Definition esA : list op := [OPutStart 0 0 0; OPutChunk 0 [1;2;3;4]; OPutEnd 0 0;
  OGfcStart 1 0 0 1; OGfcStart 1 2 0 3; OGfcSlice 1 [(3%nat,(2,2))]].
Example full_statement_refuted_a :
  wf_world wA = true /\ wf_ops wA [] esA = true /\ wf_tids esA = false /\ mon01_model wA esA = [1%Z].
Proof. vm_compute. repeat split. Qed.

Definition cfgB : config := {| c_bs := 16; c_old := 1; c_cur := 1; c_new := 1; c_mutable := false; c_nblocks := 0;
  c_hier := true; c_inst_keys := true; c_validate := false |}.
Definition wB : world := {| w_cfg := cfgB; w_objs := [[1;2;3;4]; [5;6;7;8]; [1;2]]; w_anc := [[0%nat]] |}.
(** (b) hierarchical: OGetConsume consumes the reader parked by OGfcStart 1;
    thread id 1 is then reused by a plain Get which OGfcSlice 1 consumes. *)
Definition esB : list op := [OPutStart 0 0 0; OPutChunk 0 [1;2;3;4]; OPutEnd 0 0;
  OPutStart 0 1 0; OPutChunk 0 [5;6;7;8]; OPutEnd 0 0;
  OGfcStart 1 0 0 2; OGetConsume 1; OGetOpen 1 1 0; OGfcSlice 1 [(2%nat,(0,2))]].
Example full_statement_refuted_b :
  wf_world wB = true /\ wf_ops wB [] esB = true /\ wf_tids esB = false /\ mon01_model wB esB = [1%Z].
Proof. vm_compute. repeat split. Qed.
(** (c) hierarchical, the other way round. *)
Definition esC : list op := [OPutStart 0 0 0; OPutChunk 0 [1;2;3;4]; OPutEnd 0 0;
  OPutStart 0 1 0; OPutChunk 0 [5;6;7;8]; OPutEnd 0 0;
  OGetOpen 1 0 0; OGfcSlice 1 []; OGfcStart 1 1 0 2; OGetConsume 1].
Example full_statement_refuted_c :
  wf_world wB = true /\ wf_ops wB [] esC = true /\ wf_tids esC = false /\ mon01_model wB esC = [1%Z].
Proof. vm_compute. repeat split. Qed.

(** Non-vacuity: a block-device, validating, instance-keyed flat store;
    interleaved uploads, a rotation, a refreshing Get, a sliced composite
    read, FindMissing, a read of the child entry, a failed (short) upload, a
    corruption event and a read after it: the hypotheses hold and the
    schedule contains successful reads with the uploaded bytes. *)
Definition cfgN : config := {| c_bs := 8; c_old := 1; c_cur := 1; c_new := 1; c_mutable := false; c_nblocks := 5;
  c_hier := false; c_inst_keys := true; c_validate := true |}.
Definition wN : world := {| w_cfg := cfgN; w_objs := [[1;2;3;4]; [1;2]; [5;6;7;8;9;10]; [7;7;7;7;7]]; w_anc := [[0%nat]] |}.
Definition esN : list op := [
  OPutStart 0 0 0; OPutChunk 0 [1;2]; OPutStart 1 2 0; OPutChunk 1 [5;6;7;8;9;10]; OPutChunk 0 [3;4]; OPutEnd 0 0; OPutEnd 1 0;
  OPutStart 5 3 0; OPutChunk 5 [7;7;7;7;7]; OPutEnd 5 0;
  OGetOpen 2 0 0; OGetConsume 2;
  OGfcStart 3 0 0 1; OGfcSlice 3 [(1%nat,(0,2))];
  OFindMissing [(0%nat,0%nat);(1%nat,0%nat);(2%nat,0%nat)];
  OGetOpen 4 1 0; OGetConsume 4;
  OPutStart 7 2 0; OPutChunk 7 [5;6;7;8;9]; OPutEnd 7 0; OCorrupt 0 0 8; OGetOpen 8 0 0; OGetConsume 8].
Example hypotheses_satisfiable :
  wf_world wN = true /\ wf_ops wN [] esN = true /\ wf_tids esN = true /\
  ob_ok (nth 11 (model_obs wN esN) (L [])) = true /\ ob_bytes (nth 11 (model_obs wN esN) (L [])) = [1;2;3;4] /\
  ob_ok (nth 13 (model_obs wN esN) (L [])) = true /\ ob_bytes (nth 13 (model_obs wN esN) (L [])) = [1;2] /\
  ob_ok (nth 16 (model_obs wN esN) (L [])) = true /\ ob_bytes (nth 16 (model_obs wN esN) (L [])) = [1;2] /\
  ob_code (nth 19 (model_obs wN esN) (L [])) = 3%Z /\
  ob_ok (nth 22 (model_obs wN esN) (L [])) = true /\ ob_bytes (nth 22 (model_obs wN esN) (L [])) = [1;2;3;4].
Proof. vm_compute. repeat split. Qed.
