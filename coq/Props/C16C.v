(** C16C — stream clones of a buffer with an error handler obey C16's
    specification (sub-check of C16; model and monitor in Run/R16C.v, proofs in
    Run/R16CProofs.v). *)
From Coq Require Import List ZArith NArith Bool.
From BBS Require Import Common.Sx Buffer.Source Buffer.Convert Buffer.ErrHandler Buffer.EHFuelMon
  Run.R09 Run.R16 Run.R16C Run.R16CProofs.
Import ListNotations.
Open Scope Z_scope.

(** The clone model is C16's model of ONE consumer of the error-handled
    buffer: the handlers' logs, the Close() counts and the integrity callbacks
    are those of [run16] on the inner case consumed by ToChunkReader(0, c)
    (Discard when every handle is discarded), and every handle's result is a
    function of that run's bytes and terminator alone. *)
Theorem clone_model_is_direct_model : forall splits ms order inner,
  let inp := L [splits; ms; order; inner] in
  let o := run16 (set_meth inner (base_meth (map dec_meth (sx_list ms)))) in
  run16C inp =
    L [L (map (fun m => handle_res m (dec_bytes (sx_nth o 0)) (sx_Z (sx_nth o 1))) (map dec_meth (sx_list ms)));
       sx_nth o 3; sx_nth o 4; sx_nth o 5; sx_nth o 7].
Proof. intros. reflexivity. Qed.
Print Assumptions clone_model_is_direct_model.

(** What C16's monitor says about the single consumer it says about every
    handle: if [mon16] is silent on the observation of ToChunkReader(0, c0) of
    the error-handled buffer (bytes D, terminator E), it is silent on the view
    of a handle that shows D from its offset (or nothing, when the stream
    failed) with the same terminator, the same handler logs and close counts. *)
Theorem handle_view_inherits_C16 : forall inner c0 D E x cbs onerrs dones y closes off c D',
  mon16 (set_meth inner (L [A 3; A 0; A c0; A 0])) (L [of_Ns D; A E; x; cbs; onerrs; dones; y; closes]) = [] ->
  0 <= off -> shows off D E D' ->
  mon16 (set_meth inner (L [A 3; A off; A c; A 0])) (L [of_Ns D'; A E; L []; cbs; onerrs; dones; L []; closes]) = [].
Proof. exact mon16_view. Qed.
Print Assumptions handle_view_inherits_C16.

(** The monitor is SILENT ON THE MODEL: for every script (any number of
    faults / replacements / handler levels), every handle tree, every start
    order and every assignment of the four methods (or Discard) to the
    handles.  [dom16C]: C16's domain [dom16F] for the single consumer
    (>= 1 handler, well-formed scripts, positive loop parameters, positive
    final code), handles among ToByteSlice / IntoWriter / ToChunkReader at an
    offset >= 0 / ToReader / Discard, and the single consumer's stream does not
    end with the code 0 ("no error": a drained stream ends with io.EOF or an
    error).  Derived from C16's [monitor_silent_on_model] through
    [handle_view_inherits_C16]; no fuel hypothesis. *)
Theorem mon16C_silent_on_model : forall inp, dom16C inp -> mon16C inp (run16C inp) = [].
Proof. exact R16CProofs.mon16C_silent_on_model. Qed.
Print Assumptions mon16C_silent_on_model.

(** Non-vacuity.  The stream
    delivers 1 and fails with 14, the handler supplies a replacement (1,2,3 in
    two chunks), two handles: IntoWriter and ToChunkReader(1, 2).  Both get
    the stitched object (from their offset), the error is offered once, Done
    once, both sources closed once. *)
Example dom16C_instance :
  let inner := L [A 1; L [A 3; L [A 9; A 9]; A 3];
                  L [A 0; L [L [A 0; L [A 1]]; L [A 1; A 14]; L [A 0; L [A 7]]]];
                  L [L [L [A 0; L [A 0; L [L [A 0; L [A 1; A 2]]; L [A 0; L [A 3]]; L [A 2]]]]]];
                  L [A 6]; L [L [L [A 1; A 2; A 3]; L [A 9; A 9]]]] in
  let inp := L [L [A 0]; L [L [A 1]; L [A 3; A 1; A 2; A 0]]; L [A 0; A 1]; inner] in
  dom16C inp /\
  run16C inp = L [L [L [A 0; L [A 1; A 2; A 3]]; L [A (-1); L [A 2; A 3]]]; L [A 1]; L [L [A 14]]; L [A 1]; L [A 1; A 1]].
Proof.
  cbv zeta. split; [|vm_compute; reflexivity].
  unfold dom16C. split; [|split].
  - unfold dom16F. repeat match goal with |- _ /\ _ => split end.
    + vm_compute. discriminate.
    + vm_compute. split; [exact I|]. repeat constructor.
    + vm_compute. reflexivity.
    + vm_compute. reflexivity.
    + vm_compute. discriminate.
  - vm_compute. reflexivity.
  - intros _. vm_compute. discriminate.
Qed.

(** ... and with every handle discarded the error-handled buffer is discarded once. *)
Example dom16C_instance_all_discarded :
  let inner := L [A 1; L [A 3; L [A 9; A 9]; A 3];
                  L [A 0; L [L [A 0; L [A 1]]; L [A 1; A 14]; L [A 0; L [A 7]]]];
                  L [L [L [A 1; A 7]]];
                  L [A 6]; L [L [L [A 1; A 2; A 3]; L [A 9; A 9]]]] in
  let inp := L [L [A 0; A 1]; L [L [A 6]; L [A 6]; L [A 6]]; L [A 2; A 0; A 1]; inner] in
  dom16C inp /\
  run16C inp = L [L [L [A 0; L []]; L [A 0; L []]; L [A 0; L []]]; L []; L [L []]; L [A 1]; L [A 1]].
Proof.
  cbv zeta. split; [|vm_compute; reflexivity].
  unfold dom16C. split; [|split].
  - unfold dom16F. repeat match goal with |- _ /\ _ => split end.
    + vm_compute. discriminate.
    + vm_compute. split; [exact I|]. repeat constructor.
    + vm_compute. reflexivity.
    + vm_compute. reflexivity.
    + vm_compute. discriminate.
  - vm_compute. reflexivity.
  - intros H. vm_compute in H. discriminate H.
Qed.
