(** C19 — Instance-name routing: longest-prefix demultiplexing with prefix
    rewriting, instance-name trie, patcher, hierarchical instance names.
    Proofs are in the files of Routing/. *)
From BBS Require Import Common.Sx Routing.Names Routing.NamesProofs Routing.Trie Routing.TrieProofs Routing.TrieFull Routing.TrieFullMon Routing.TrieFullMonHier
  Routing.TrieFullMonDemux Routing.TrieFullMonAll
  Routing.Patcher Routing.PatcherProofs Routing.Demux Routing.DemuxProofs Routing.HierNames Routing.HierProofs Run.R19.
Open Scope Z_scope.

(** ------------------------------------------------------------------ trie
    [reach t]: t is obtained from the empty trie by any history of Set (values
    >= 0, i.e. backend indices) and successful Remove.  [to_map t] is the
    association list name -> value the trie stands for. *)

Theorem glp_spec : forall t n, reach t ->
  get_longest_prefix t n = longest_prefix_value (to_map t) n.
Proof. exact glp_to_map. Qed.
Print Assumptions glp_spec.

(** what [longest_prefix_value] means: the value of the LONGEST registered
    component-wise prefix, -1 when no registered name is a prefix *)
Theorem longest_prefix_value_is_longest : forall (m : list (list comp * Z)) n,
  (exists p, is_prefix p n = true /\ 0 <= assoc_get m p /\ longest_prefix_value m n = assoc_get m p /\
             forall q, is_prefix q n = true -> 0 <= assoc_get m q -> (length q <= length p)%nat)
  \/ (longest_prefix_value m n = -1 /\ forall q, is_prefix q n = true -> assoc_get m q < 0).
Proof. exact lpv_assoc_longest. Qed.
Print Assumptions longest_prefix_value_is_longest.

Theorem get_exact_spec : forall t n, reach t -> get_exact t n = assoc_get (to_map t) n.
Proof. exact get_exact_to_map. Qed.
Print Assumptions get_exact_spec.

Theorem contains_prefix_spec : forall t n, reach t -> contains_prefix t n = has_prefix (to_map t) n.
Proof. exact contains_prefix_to_map. Qed.
Print Assumptions contains_prefix_spec.

Theorem set_spec : forall t n v, reach t -> 0 <= v ->
  forall m, assoc_get (to_map (set t n v)) m = assoc_get (assoc_set (to_map t) n v) m.
Proof. exact set_to_map. Qed.
Print Assumptions set_spec.

(** No dead branches: in every reachable trie every node other than the root
    lies on the path to a registered name, and every leaf other than the root is
    itself registered ([subtrie t p] = the node reached from the root along [p]).
    Hence a reachable trie that stands for the empty map IS the empty trie. *)
Theorem reachable_trie_has_no_dead_branch : forall t p s, reach t -> subtrie t p = Some s -> p <> nil ->
  (exists m, 0 <= assoc_get (to_map t) (p ++ m)) /\ (tch s = nil -> 0 <= assoc_get (to_map t) p).
Proof. exact reach_no_dead_branch. Qed.
Print Assumptions reachable_trie_has_no_dead_branch.

Theorem reachable_trie_without_names_is_empty : forall t, reach t ->
  (forall m, assoc_get (to_map t) m = -1) -> t = empty_trie.
Proof. exact reach_no_names_empty. Qed.
Print Assumptions reachable_trie_without_names_is_empty.

(** Remove of a registered name: succeeds (no nil dereference), deletes exactly
    that name, and returns [true] exactly when the trie became empty.  Remove of
    an absent name whose node does not exist is [Panic] in the model (nil
    dereference in Go), hence the hypothesis. *)
Theorem remove_spec : forall t n, reach t -> 0 <= assoc_get (to_map t) n ->
  exists t' b, remove t n = Ok (t', b) /\
    (forall m, assoc_get (to_map t') m = assoc_get (assoc_remove (to_map t) n) m) /\
    (b = true <-> forall m, assoc_get (to_map t') m = -1).
Proof. exact remove_to_map_full. Qed.
Print Assumptions remove_spec.

(** ... and whenever Remove does not panic (the node of the name exists, with or
    without a value) its result is "the trie is now empty" *)
Theorem remove_result_iff_empty : forall t n t' b, reach t -> remove t n = Ok (t', b) ->
  (b = true <-> forall m, assoc_get (to_map t') m = -1).
Proof. exact remove_ok_full. Qed.
Print Assumptions remove_result_iff_empty.

(** non-vacuity: removing the only name below an inner chain cuts the whole
    chain (the trie is the empty trie again, result true); with a sibling left
    the result is false and no value-less leaf remains *)
Example remove_example :
  let a := [97%N] in let b := [98%N] in
  remove (set empty_trie [a; b; a] 3) [a; b; a] = Ok (empty_trie, true)
  /\ remove (set (set empty_trie [a; b; a] 3) [a; a] 4) [a; b; a]
     = Ok (Node (-1) [(a, Node (-1) [(a, Node 4 [])])], false)
  /\ remove (set (set empty_trie [a; b] 3) [a] 4) [a] = Ok (set empty_trie [a; b] 3, false).
Proof. vm_compute. repeat split; reflexivity. Qed.

(** ------------------------------------------- the monitor on the model
    The monitor [mon19] (the decidable check that judges the Go code) is silent on
    the model's own output [run19], for every input such that
    - kind 0 (trie history): the model does not panic (it panics only on a Remove
      of a name whose node does not exist, a nil dereference in Go; second theorem
      below: no panic when every Remove is of a registered name and every Set
      value is >= 0);
    - kind 2 (demultiplexer): every owner index has a backend description and the
      instance names in the operations are well-formed ([op_wf]: name_ok (split
      inst); for GetFromComposite only when parent and child carry the same name);
    - kind 1 (patcher) and kind 3 / any other kind (hierarchical decorator, any
      backend description, error names, FindMissing faults): no hypothesis.
    Each hypothesis is necessary: [monitor_on_model_needs_*] below. *)
Theorem monitor_silent_on_model : forall inp, model_input_ok inp -> mon19 inp (run19 inp) = nil.
Proof. exact mon19_silent_on_model. Qed.
Print Assumptions monitor_silent_on_model.

Example model_input_ok_examples :
  let a := [97%N] in let b := [98%N] in
  model_input_ok (L [A 0; L [L [A 0; enc_str a; A 3]; L [A 3; enc_str (a ++ [47%N] ++ b)]; L [A 1; enc_str a]]])
  /\ model_input_ok (L [A 2; L [L [enc_str a; enc_str b]]; L [L [L []; A 0]];
                         L [L [A 3; enc_dgs [(a ++ [47%N] ++ b, 1%N); (b, 2%N)]]]]).
Proof.
  split; (split; [intros H; vm_compute in H; try discriminate; vm_compute; try discriminate
                 |intros H; vm_compute in H; try discriminate; vm_compute; split; reflexivity]).
Qed.

(** the hypotheses are needed: a trie history on which the model panics (Remove of
    a name without node); a demultiplexer input with the ill-formed name "a/"; a
    demultiplexer configuration whose owner has no backend *)
Example monitor_on_model_needs_no_panic :
  let inp := L [A 0; L [L [A 4; enc_str [97%N]]; L [A 1; enc_str [98%N]]]] in
  run19 inp = panic_obs /\ mon19 inp (run19 inp) = [2].
Proof. vm_compute. split; reflexivity. Qed.
Example monitor_on_model_needs_wf_names :
  let inp := L [A 2; L [L [enc_str [97%N]; enc_str [98%N]]]; L [L [L []; A 0]];
                L [L [A 0; enc_dg ([97%N; 47%N], 1%N)]]] in
  mon19 inp (run19 inp) = [7].
Proof. vm_compute. reflexivity. Qed.
Example monitor_on_model_needs_backends :
  let inp := L [A 2; L [L [enc_str [97%N]; enc_str [98%N]]]; L [];
                L [L [A 0; enc_dg ([97%N], 1%N)]]] in
  mon19 inp (run19 inp) = [7; 8].
Proof. vm_compute. reflexivity. Qed.

(** the four kinds separately *)
Theorem monitor_silent_on_model_trie : forall inp,
  sx_Z (sx_nth inp 0) = 0 ->
  run_trie (sx_list (sx_nth inp 1)) empty_trie <> None ->
  mon19 inp (run19 inp) = nil.
Proof. exact mon19_silent_on_trie_model. Qed.
Print Assumptions monitor_silent_on_model_trie.

Theorem trie_model_no_panic_on_registered_removes : forall inp,
  sx_Z (sx_nth inp 0) = 0 ->
  removes_registered (sx_list (sx_nth inp 1)) nil ->
  run_trie (sx_list (sx_nth inp 1)) empty_trie <> None /\ mon19 inp (run19 inp) = nil.
Proof. exact mon19_silent_on_trie_model_registered. Qed.
Print Assumptions trie_model_no_panic_on_registered_removes.

(** ... demultiplexer inputs (kind 2), clauses 6-10, faulty backends included *)
Theorem monitor_silent_on_model_demux : forall inp,
  sx_Z (sx_nth inp 0) = 2 ->
  (length (dec_cfg (sx_nth inp 1)) <= length (sx_list (sx_nth inp 2)))%nat ->
  forallb op_wf (sx_list (sx_nth inp 3)) = true ->
  mon19 inp (run19 inp) = nil.
Proof. exact mon19_silent_on_demux_model. Qed.
Print Assumptions monitor_silent_on_model_demux.

(** ... patcher inputs (kind 1), clauses 4 and 5: no hypothesis *)
Theorem monitor_silent_on_model_patcher : forall inp,
  sx_Z (sx_nth inp 0) = 1 -> mon19 inp (run19 inp) = nil.
Proof. exact mon19_silent_on_patcher_model. Qed.
Print Assumptions monitor_silent_on_model_patcher.

(** ... hierarchical-decorator inputs (kind 3 and every kind other than 0, 1, 2),
    clauses 11-14, any backend description including error names and FindMissing
    faults at any call: no hypothesis *)
Theorem monitor_silent_on_model_hier : forall inp,
  sx_Z (sx_nth inp 0) <> 0 -> sx_Z (sx_nth inp 0) <> 1 -> sx_Z (sx_nth inp 0) <> 2 ->
  mon19 inp (run19 inp) = nil.
Proof. exact mon19_silent_on_hier_model. Qed.
Print Assumptions monitor_silent_on_model_hier.

(** "ab" has the string prefix "a" but not the component prefix: it is not
    routed to "a"; "a/b" is. *)
Example string_prefix_not_component :
  let a := [97%N] in let ab := [97%N; 98%N] in let b := [98%N] in
  let t := set (set empty_trie [a] 0) [a; b; a] 1 in
  str_prefix (join [a]) (join [ab]) = true
  /\ get_longest_prefix t [ab] = -1
  /\ get_longest_prefix t [ab; b] = -1
  /\ get_longest_prefix t [a; b] = 0
  /\ get_longest_prefix t [a; ab] = 0
  /\ get_longest_prefix t [a; b; a; ab] = 1
  /\ get_longest_prefix t [a; b; ab] = 0
  /\ contains_prefix t [ab] = false
  /\ get_longest_prefix (set t [] 7) [ab] = 7.
Proof. vm_compute. repeat split; reflexivity. Qed.

(** --------------------------------------------------------------- patcher *)

Theorem patch_spec : forall old new r,
  name_ok old = true -> name_ok new = true -> name_ok r = true ->
  patch_name (new_patcher (join old) (join new)) (join (old ++ r)) = join (new ++ r).
Proof. exact patch_name_spec. Qed.
Print Assumptions patch_spec.

Theorem unpatch_spec : forall old new r,
  name_ok old = true -> name_ok new = true -> name_ok r = true ->
  unpatch_name (new_patcher (join old) (join new)) (join (new ++ r)) = join (old ++ r).
Proof. exact unpatch_name_spec. Qed.
Print Assumptions unpatch_spec.

Theorem unpatch_patch : forall old new r b,
  name_ok old = true -> name_ok new = true -> name_ok r = true ->
  let p := new_patcher (join old) (join new) in
  unpatch_digest p (patch_digest p (join (old ++ r), b)) = (join (old ++ r), b).
Proof. exact unpatch_patch_digest. Qed.
Print Assumptions unpatch_patch.

(** string form and component form of well-formed names correspond *)
Theorem split_join_id : forall n, name_ok n = true -> split (join n) = n.
Proof. exact split_join. Qed.
Print Assumptions split_join_id.

Example patch_example :
  let a := [97%N] in let ab := [97%N; 98%N] in let b := [98%N] in
  let p := new_patcher (join [a]) (join [b; ab]) in
  patch_name p (join [a]) = join [b; ab]
  /\ patch_name p (join [a; b]) = join [b; ab; b]
  /\ unpatch_name p (join [b; ab; b]) = join [a; b]
  /\ patch_name (new_patcher (join []) (join [a])) (join []) = join [a]
  /\ patch_name (new_patcher (join [a]) (join [])) (join [a; b]) = join [b].
Proof. vm_compute. repeat split; reflexivity. Qed.

(** ----------------------------------------------------------- demultiplexer
    [cfg]: list of (prefix to match, prefix to put in its place), registered in
    the trie as new_blob_access.go does; [owner cfg inst]: index of the entry
    registered (last) for the longest component-wise prefix of [inst], else -1
    — defined on the configuration list, without any trie. *)

Theorem getter_lookup_is_owner : forall cfg inst,
  get_longest_prefix (build_trie cfg) (split inst) = owner cfg inst.
Proof. exact glp_owner. Qed.
Print Assumptions getter_lookup_is_owner.

(** the getter: InvalidArgument for unknown names; otherwise the owner's
    index, its name and the patcher old-prefix -> new-prefix, the instance name
    being the matched prefix followed by some rest; never a panic *)
Theorem getter_spec : forall cfg m, cfg_ok cfg -> name_ok m = true ->
  match get_backend cfg (join m) with
  | Err e => e = INVALID_ARGUMENT /\ owner cfg (join m) = -1
  | Ok (i, key, p) =>
      exists o n r, nth_error cfg i = Some (join o, join n) /\ name_ok o = true /\ name_ok n = true /\
                    name_ok r = true /\ m = o ++ r /\ key = join o /\ p = new_patcher (join o) (join n) /\
                    owner cfg (join m) = Z.of_nat i
  | Panic => False
  end.
Proof. exact get_backend_spec. Qed.
Print Assumptions getter_spec.

Theorem demux_unknown_rejected : forall (D : Type) cfg (backends : list (backend D)),
  cfg_ok cfg -> forall m b, name_ok m = true -> owner cfg (join m) < 0 ->
  demux_get cfg backends (join m, b) = (Err INVALID_ARGUMENT, [])
  /\ (forall c, demux_gfc cfg backends (join m, b) c = (Err INVALID_ARGUMENT, []))
  /\ demux_put cfg backends (join m, b) = (Ok (INVALID_ARGUMENT, true), []).
Proof. exact @demux_unknown. Qed.
Print Assumptions demux_unknown_rejected.

(** Get / Put / GetFromComposite: exactly one call, to the owning backend, the
    matched prefix [o] replaced by the configured [n]; the result is that backend's *)
Theorem demux_routes_to_owner : forall (D : Type) cfg (backends : list (backend D)),
  cfg_ok cfg -> forall m b, name_ok m = true -> 0 <= owner cfg (join m) ->
  exists i o n r, owner cfg (join m) = Z.of_nat i /\ nth_error cfg i = Some (join o, join n) /\ m = o ++ r /\
    forall bk, nth_error backends i = Some bk ->
      demux_get cfg backends (join m, b) = (b_get bk (join (n ++ r), b), [CGet i (join (n ++ r), b)])
      /\ demux_put cfg backends (join m, b) = (Ok (b_put bk (join (n ++ r), b), false), [CPut i (join (n ++ r), b)])
      /\ (forall cb, demux_gfc cfg backends (join m, b) (join m, cb)
                     = (b_gfc bk (join (n ++ r), b) (join (n ++ r), cb),
                        [CGfc i (join (n ++ r), b) (join (n ++ r), cb)])).
Proof. exact @demux_known. Qed.
Print Assumptions demux_routes_to_owner.

(** FindMissing over backends with stable contents [present i]: an unknown
    name rejects the whole call before any backend is contacted; otherwise the
    result is exactly the set of requested digests whose rewritten form is
    missing at their owner — expressed in the caller's names — and every backend
    call is a FindMissing about exactly the rewritten digests that backend owns.
    ([getter_spec] says what (i, key, p) are.) *)
Theorem demux_find_missing_spec : forall (D : Type) cfg (backends : list (backend D)) (present : nat -> digest -> bool),
  cfg_ok cfg -> length backends = length cfg ->
  (forall i bk, nth_error backends i = Some bk ->
     forall q, b_fm bk q = Ok (filter (fun d => negb (present i d)) q)) ->
  forall ds, (forall d, In d ds -> exists m, name_ok m = true /\ fst d = join m) ->
  ((exists d, In d ds /\ owner cfg (fst d) < 0) -> demux_fm cfg backends ds = (Err INVALID_ARGUMENT, []))
  /\ ((forall d, In d ds -> 0 <= owner cfg (fst d)) ->
      exists res calls, demux_fm cfg backends ds = (Ok res, calls) /\
        (forall d, In d res <-> In d ds /\ exists i key p, get_backend cfg (fst d) = Ok (i, key, p)
                                                       /\ present i (patch_digest p d) = false) /\
        (forall i q, In (CFm i q) calls ->
           forall x, In x q <-> exists d key p, In d ds /\ get_backend cfg (fst d) = Ok (i, key, p)
                                                /\ x = patch_digest p d) /\
        (forall c, In c calls -> exists i q, c = CFm i q)).
Proof. exact @demux_fm_correct. Qed.
Print Assumptions demux_find_missing_spec.

(** prefixes "" -> "x", "a" -> "", "a/b" -> "a/b": digests of three names, one call per owner *)
Example demux_example :
  let a := [97%N] in let ab := [97%N; 98%N] in let b := [98%N] in let x := [120%N] in
  let cfg := [(join [], join [x]); (join [a], join []); (join [a; b], join [a; b])] in
  let bk (i : nat) : backend unit :=
    {| b_get := fun _ => Err NOT_FOUND; b_gfc := fun _ _ => Err NOT_FOUND; b_put := fun _ => 0;
       b_fm := fun q => Ok (filter (fun d => negb (N.eqb (snd d) 1)) q) |} in
  demux_fm cfg [bk 0%nat; bk 1%nat; bk 2%nat]
    [(join [ab], 1%N); (join [ab], 2%N); (join [a; ab], 2%N); (join [a; b; a], 3%N); (join [a], 4%N)]
  = (Ok [(join [a; ab], 2%N); (join [ab], 2%N); (join [a; b; a], 3%N); (join [a], 4%N)],
     [CFm 0 [(join [x; ab], 1%N); (join [x; ab], 2%N)];
      CFm 1 [(join [ab], 2%N); (join [], 4%N)];
      CFm 2 [(join [a; b; a], 3%N)]]).
Proof. vm_compute. reflexivity. Qed.

(** ------------------------------------------- hierarchical instance names
    [parents_of d]: d under every prefix of its instance name, d itself last. *)

(** Get returns what [first_answer] says: going from the most specific name
    upwards, the first answer other than NOT_FOUND. *)
Theorem hier_get_spec : forall (D : Type) (get : digest -> outcome D) d,
  (forall a, get a <> Panic) ->
  fst (hier_get get d) = first_answer get (rev (parents_of d)).
Proof. exact @hier_get_first_answer. Qed.
Print Assumptions hier_get_spec.

(** ... i.e. the object of the most specific ancestor that has it, *)
Theorem hier_get_most_specific : forall (D : Type) (get : digest -> outcome D) pre a post x,
  (forall b, In b pre -> get b = Err NOT_FOUND) -> get a = Ok x ->
  first_answer get (pre ++ a :: post) = Ok x.
Proof. exact @first_answer_found. Qed.
Print Assumptions hier_get_most_specific.
(** other errors surface, *)
Theorem hier_get_error_surfaces : forall (D : Type) (get : digest -> outcome D) pre a post e,
  (forall b, In b pre -> get b = Err NOT_FOUND) -> get a = Err e -> e <> NOT_FOUND ->
  first_answer get (pre ++ a :: post) = Err e.
Proof. exact @first_answer_error. Qed.
Print Assumptions hier_get_error_surfaces.
(** and NOT_FOUND is returned only if no ancestor has it. *)
Theorem hier_get_not_found_iff : forall (D : Type) (get : digest -> outcome D) chain,
  (forall b, In b chain -> get b <> Panic) ->
  (first_answer get chain = Err NOT_FOUND <-> forall b, In b chain -> get b = Err NOT_FOUND).
Proof. exact @first_answer_not_found. Qed.
Print Assumptions hier_get_not_found_iff.

(** FindMissing over a backend whose contents are stable during the operation:
    terminates (the result is never the out-of-fuel [Panic]) and reports a digest
    missing exactly when it is missing under its name and all its ancestors. *)
Theorem hier_fm_spec : forall (present : digest -> bool) ds,
  exists res asked, hier_fm (honest_fm present) ds = (Ok res, asked) /\
    forall d, In d res <-> In d ds /\ forall a, In a (parents_of d) -> present a = false.
Proof. exact hier_fm_honest. Qed.
Print Assumptions hier_fm_spec.

(** termination whatever the backend does (errors, answers that change between the levels) *)
Theorem hier_fm_terminates : forall (fm : nat -> list digest -> outcome (list digest)) ds,
  (forall k q, fm k q <> Panic) -> fst (hier_fm fm ds) <> Panic.
Proof. exact hier_fm_no_panic. Qed.
Print Assumptions hier_fm_terminates.

Theorem parents_of_contains_self : forall d, In d (parents_of d).
Proof. exact parents_of_self. Qed.
Print Assumptions parents_of_contains_self.

Example hier_example :
  let a := [97%N] in let b := [98%N] in
  let present (d : digest) := dg_eqb d (join [a], 1%N) || dg_eqb d (join [], 2%N) in
  fst (hier_fm (honest_fm present)
         [(join [a; b], 1%N); (join [a; b], 2%N); (join [a; b], 3%N); (join [b], 1%N)])
  = Ok [(join [b], 1%N); (join [a; b], 3%N)].
Proof. vm_compute. reflexivity. Qed.
