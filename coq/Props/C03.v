(** C03 — Acknowledged uploads survive graceful shutdown and committed epochs.
    Statements only; proofs are in Persist/ShutdownProofs.v,
    Persist/ShutdownOrder.v, Persist/ShutdownArith.v and Run/R03Mon*.v.

    The transition system is the one of Persist/Syncer.v (C07): one event per
    atomic step — BlockList.Put / finalizer, PopFront, PushBack, one
    lock-protected section or I/O completion (success/failure) or timer expiry
    of either PeriodicSyncer loop, clock advance, context cancellation — over
    the model of PersistentBlockList of Persist/PBL.v.  [grun] (Shutdown.v)
    runs it together with a ghost history that cannot influence a step
    ([grun_is_run]):
      - [g_acks]: one [ack] per finalizer that returned FinOk (the uploads and
        refreshes that get acknowledged): absolute block index, end offset,
        epoch number, the BlockReference written into the index record;
      - [g_syncing] := all acks so far, at every step that calls NotifySyncStarting;
        [g_synced] := [g_syncing] at every step that calls NotifySyncCompleted;
      - every GetPersistentState snapshot is recorded with [g_synced] as its
        cohort and moves to [gs_writes] when WritePersistentState returns nil.
    So "w in gs_writes x, a in gw_cohort w" reads: a was acknowledged before the
    start of a sync that completed before the snapshot of the completed state
    write w was taken — a commit that ran to completion.
    [covers w a] (Shutdown.v): a's block had been popped by rotation before the
    snapshot, or NewPersistentBlockList on w's state lists a's epoch seed at a's
    epoch, a's block, and a write cursor at or above a's end.
    [greachable] = reachable by ANY schedule from NewPersistentBlockList (any
    persistent state, any allocator answers) + NewPeriodicSyncer. *)
From BBS Require Import Common.Sx Persist.PBL Persist.PBLProofs Persist.Syncer Persist.SyncerProofs
  Persist.Shutdown Persist.ShutdownProofs Persist.ShutdownOrder Run.R03.
From BBS Require Import Run.R03MonGhost Run.R03MonFields Run.R03MonReplay Run.R03Mon Run.R03MonAck Run.R03MonObs Run.R03MonInherit Run.R03MonStoreFields Run.R03MonList Run.R03MonCopies Run.R03MonReadback Run.R03MonEx.
Local Open Scope nat_scope.

(** The ghost never influences the run. *)
Theorem grun_is_run : forall cfg tr s x,
  run cfg s tr = match grun cfg s x tr with
                 | Some (Ok (s', _)) => Some (Ok s')
                 | Some Panic => Some Panic
                 | None => None
                 end.
Proof. exact grun_run. Qed.
Print Assumptions grun_is_run.

(** refused, not lost (block list): once closedForWriting is set, every
    finalizer fails — errClosedForWriting (UNAVAILABLE), or the block's own
    error — and changes nothing; PushBack is refused too. *)
Theorem refused_not_lost : forall tok blk size seed p p' fr,
  closedForWriting p = true -> put_finalize tok blk size seed p = Ok (p', fr) ->
  p' = p /\ (fr = FinClosed \/ (fr = FinBlockError /\ blk = None)).
Proof. exact refused_not_lost_pbl. Qed.
Print Assumptions refused_not_lost.

Theorem refused_push_back : forall alloc p, closedForWriting p = true -> push_back alloc p = (p, PushClosed).
Proof. exact push_back_closed. Qed.
Print Assumptions refused_push_back.

(** ... over all schedules: closedForWriting is set by exactly one step (the
    put loop's NotifySyncStarting(true) that follows the first shutdown sync),
    is never reset, and from then on no step creates an ack. *)
Theorem closed_only_by_final_sync : forall cfg s e s', step cfg s e = Some (Ok s') ->
  closedForWriting (s_pbl s') = closedForWriting (s_pbl s)
  \/ (closedForWriting (s_pbl s) = false /\ closedForWriting (s_pbl s') = true /\
      exists a, e = EStep TP a /\ s_p s = PSyncRet false false /\ s_p s' = PSyncing false true).
Proof. exact step_closed. Qed.
Print Assumptions closed_only_by_final_sync.

Theorem refused_not_lost_schedules : forall cfg alloc oldest init t0 s x,
  greachable cfg alloc oldest init t0 s x -> closedForWriting (s_pbl s) = true ->
  forall e s', step cfg s e = Some (Ok s') ->
    closedForWriting (s_pbl s') = true /\ g_acks (gs_g (gstep s e s' x)) = g_acks (gs_g x).
Proof. exact refused_not_lost_all. Qed.
Print Assumptions refused_not_lost_schedules.

(** graceful: for every schedule, when ProcessBlockPut has returned false
    (shutdown requested at any point, the put loop ran to termination), the list
    is closed and the newest completed state write — what is on the medium —
    has every ack ever made in its cohort and covers each of them. *)
Theorem graceful : forall cfg alloc oldest init t0 s x,
  greachable cfg alloc oldest init t0 s x -> s_p s = PExit ->
  closedForWriting (s_pbl s) = true /\
  exists w rest, gs_writes x = w :: rest /\ gw_cohort w = g_acks (gs_g x) /\
                 forall a, In a (g_acks (gs_g x)) -> covers w a.
Proof. exact graceful_all. Qed.
Print Assumptions graceful.

(** commit_covers: for every schedule, every completed state write covers every
    ack of its cohort, i.e. every upload acknowledged before the start of the
    sync whose completion preceded the snapshot.  (A process crash keeps the
    media as they are; with no finalizer between the start of the commit and
    the crash the cohort is the set of all acks and the index holds no record
    of a later epoch.) *)
Theorem commit_covers : forall cfg alloc oldest init t0 s x,
  greachable cfg alloc oldest init t0 s x ->
  forall w, In w (gs_writes x) -> forall a, In a (gw_cohort w) -> covers w a.
Proof. exact commit_covers_all. Qed.
Print Assumptions commit_covers.

(** Completed state writes are ordered by what they cover (snapshots are taken
    and completed under storeLock; the cohort of completed syncs only grows):
    the cohort of an older write is a suffix of — i.e. contained in — the
    cohort of the newest one. *)
Theorem writes_monotone : forall cfg alloc oldest init t0 s x,
  greachable cfg alloc oldest init t0 s x ->
  forall w0 rest w, gs_writes x = w0 :: rest -> In w rest -> suffix (gw_cohort w) (gw_cohort w0).
Proof. exact writes_monotone_all. Qed.
Print Assumptions writes_monotone.

(** commit_covers, at the crash: for every schedule, at any point (a process
    crash keeps the media as they are, so the state on the medium is the
    newest completed write): if some commit ran to completion — a completed
    write w whose cohort is every ack made so far, i.e. no finalizer returned
    OK between the start of w's sync and now — then the newest completed
    write has every ack in its cohort and covers each of them (and by
    [record_resolves_after_restart] their records resolve after restart). *)
Theorem crash_commit_covers : forall cfg alloc oldest init t0 s x,
  greachable cfg alloc oldest init t0 s x ->
  forall w, In w (gs_writes x) -> gw_cohort w = g_acks (gs_g x) ->
  exists w0 rest, gs_writes x = w0 :: rest /\ gw_cohort w0 = g_acks (gs_g x) /\
                  forall a, In a (g_acks (gs_g x)) -> covers w0 a.
Proof. exact crash_commit_covers_all. Qed.
Print Assumptions crash_commit_covers.

(** record level: the BlockReference that was written into the index record of
    a covered, not evicted ack resolves on the restarted list to the ack's block
    with the ack's epoch seed (so the record's checksum matches), and the
    restored write cursor of that block is at or above the object's end (so
    the object is not overwritten).  Hypotheses: fewer than 2^32 epochs between
    the snapshot's oldest epoch and the ack's, fewer than 2^16 blocks between
    the ack's block and its epoch's last block (new_blob_access.go refuses
    more than 100 blocks). *)
Theorem record_resolves_after_restart : forall cfg alloc oldest init t0 s x,
  greachable cfg alloc oldest init t0 s x ->
  forall w, In w (gs_writes x) -> forall a, In a (gw_cohort w) ->
  gw_base_abs w <= a_abs a ->
  (N.of_nat (a_ep a - gw_base_ep w) < 2 ^ 32)%N -> (Z.of_nat (a_last a - a_abs a) < 2 ^ 16)%Z ->
  ref_to_index (fst (a_ref a)) (snd (a_ref a)) (restart_of (gw_state w))
    = Ok (Some (a_abs a - gw_base_abs w, a_seed a))
  /\ exists b, nth_error (blocks (restart_of (gw_state w))) (a_abs a - gw_base_abs w) = Some b
               /\ (a_end a <= b_written b)%Z.
Proof. exact commit_record_resolves. Qed.
Print Assumptions record_resolves_after_restart.

(** ... and in general a record resolves on a restarted list iff its epoch's
    seed is in the restored state and its block is still listed. *)
Theorem record_resolves_iff : forall st eid bfl i sd, let p := restart_of st in
  ref_to_index eid bfl p = Ok (Some (i, sd)) <->
  exists e la, N.of_nat e = u32 (eid + 2 ^ 32 - oldestEpochID p)
    /\ nth_error (epochSeeds p) e = Some sd /\ nth_error (epochLast p) e = Some la
    /\ (Z.of_nat (totalReleased p) + Z.of_N bfl <= Z.of_nat la)%Z
    /\ i = Z.to_nat (Z.of_nat la - Z.of_nat (totalReleased p) - Z.of_N bfl)
    /\ i < length (blocks p).
Proof.
  intros st eid bfl i sd p. destruct (restart_wf st) as [H1 H2]. apply ref_to_index_iff; assumption.
Qed.
Print Assumptions record_resolves_iff.

(** restored_layout_admits_all: NewOldCurrentNewLocationBlobMap (model
    [ocn_new] of its constructor loops, with the growth policies that
    new_blob_access.go builds) schedules no restored block for release when the
    restored blocks fit the configuration; the bound is sharp. *)
Theorem restored_layout_admits_all : forall old cur new n, n <= old + cur + new ->
  l_to_be_released (ocn_new (cas_policy cur new) old n) = 0.
Proof. exact restored_layout_cas. Qed.
Print Assumptions restored_layout_admits_all.

Theorem restored_layout_admits_all_mutable : forall old cur n, n <= old + cur + 1 ->
  l_to_be_released (ocn_new (ac_policy cur) old n) = 0.
Proof. exact restored_layout_ac. Qed.
Print Assumptions restored_layout_admits_all_mutable.

Theorem restored_layout_overflow : forall old cur new n, old + cur + new < n ->
  l_to_be_released (ocn_new (cas_policy cur new) old n) = n - (old + cur + new).
Proof. exact restored_layout_cas_overflow. Qed.
Print Assumptions restored_layout_overflow.

Theorem restored_layout_partition : forall pol old n,
  l_old (ocn_new pol old n) + l_current (ocn_new pol old n) + l_new (ocn_new pol old n) = n.
Proof. exact ocn_new_counts. Qed.
Print Assumptions restored_layout_partition.

(** ---- non-vacuity: a concrete schedule with an upload, a periodic commit, a
    shutdown with both syncs, the final state write, ProcessBlockPut returning ---- *)
Definition ex_ok : ans := mkAns true 0.
Definition ex_no : ans := mkAns false 0.
Definition ex_trace : list event :=
  [EPushBack (Some (0, 64)%Z); EPutStart 0 10; EFinalize 0 (Some 0%Z) 1000%N;
   EStep TP ex_no; EStep TP ex_no; EStep TP ex_no; EStep TP ex_no; EStep TP ex_ok; EStep TP ex_no;
   EStep TP ex_no; EStep TP ex_no; EStep TP ex_ok; EStep TP ex_no;
   EPutStart 0 5; EFinalize 1 (Some 10%Z) 1001%N;
   ECancel; EStep TP ex_no; EStep TP ex_no; EStep TP ex_ok;
   EStep TP ex_no; EStep TP ex_ok; EStep TP ex_no; EStep TP ex_ok; EStep TP ex_no;
   EPutStart 0 5; EFinalize 2 (Some 15%Z) 1002%N;
   EStep TP ex_no; EStep TP ex_no; EStep TP ex_ok; EStep TP ex_no].

Definition ex_result := grun (mkConfig 0 3) (init_sys (fst (pbl_new (fun _ _ => true) 1 [])) 0) g0 ex_trace.

Example graceful_nonvacuous :
  match ex_result with
  | Some (Ok (s, x)) =>
      s_p s = PExit /\ length (g_acks (gs_g x)) = 2 /\ length (gs_writes x) = 2 /\
      match gs_writes x with
      | w :: _ => length (gw_cohort w) = 2 /\ length (snd (gw_state w)) = 1 /\
                  map bs_off (snd (gw_state w)) = [15%Z] /\ map bs_seeds (snd (gw_state w)) = [[1000%N; 1001%N]]
      | [] => False
      end
  | _ => False
  end.
Proof. vm_compute. repeat split; reflexivity. Qed.

(** ... in which the third upload was refused (closed) and created no ack *)
Example refused_nonvacuous :
  match grun (mkConfig 0 3) (init_sys (fst (pbl_new (fun _ _ => true) 1 [])) 0) g0 (firstn 25 ex_trace) with
  | Some (Ok (s, x)) =>
      closedForWriting (s_pbl s) = true /\
      match nth_error (s_uploads s) 2 with
      | Some (Some (tok, size)) => put_finalize tok (Some 15%Z) size 1002%N (s_pbl s) = Ok (s_pbl s, FinClosed)
      | _ => False
      end
  | _ => False
  end.
Proof. vm_compute. split; reflexivity. Qed.

(** ... and after its first 13 steps (one upload, one periodic commit) a crash would find a
    completed write whose cohort is every ack *)
Example crash_nonvacuous :
  match grun (mkConfig 0 3) (init_sys (fst (pbl_new (fun _ _ => true) 1 [])) 0) g0 (firstn 13 ex_trace) with
  | Some (Ok (s, x)) =>
      match gs_writes x with
      | [w] => gw_cohort w = g_acks (gs_g x) /\ length (g_acks (gs_g x)) = 1 /\ s_p s = PStart
      | _ => False
      end
  | _ => False
  end.
Proof. vm_compute. repeat split; reflexivity. Qed.

Example layout_nonvacuous :
  ocn_new (cas_policy 2 3) 1 6 = mkLayout 1 0 5 0 /\ ocn_new (cas_policy 2 3) 1 7 = mkLayout 2 0 5 1 /\
  ocn_new (ac_policy 2) 1 4 = mkLayout 1 2 1 0.
Proof. vm_compute. repeat split; reflexivity. Qed.

(** ================= the monitor of Run/R03.v versus the model =================
    Run/R03.v has no generative [run03 inp]: the model side of [judge03] is trace validation
    ([replay03 inp obs = []]: the model ACCEPTS the observed call history; the nondeterminism —
    interleaving, I/O outcomes, allocator answers — is resolved from the observation).  "The
    monitor is silent on the model" is therefore stated over EVERY observation the model accepts,
    i.e. for every resolution.  Proofs: Run/R03Mon*.v.

    Full statement (NOT proved: clause 5 "wrong bytes" needs the data device and the index above
    the block list, which Persist/*.v does not model):
      forall inp obs, is_marker obs = false -> replay03 inp obs = [] -> store_ok inp obs -> mon03 inp obs = [].
    Proved below: every clause except 5 ([mon03_silent_on_accepted_partial2]), the part of the store
    that the model does not contain entering as two decidable checks on the observation ([u_obs],
    [r_obs]).

    Proved: clauses 2, 3, 7, 8 never fire (the hypothesis [u_obs], a decidable check on the
    observation, is the store-level link "the result of an upload op is the one the store derives
    from the finalizer of the same op, and no final NotifySyncStarting / return of ProcessBlockPut
    lies inside an upload op" — R03MonAck.v) ... *)
Theorem mon03_silent_on_accepted_partial : forall inp obs,
  is_marker obs = false -> replay03 inp obs = [] -> u_obs inp obs = true ->
  forall z, In z (mon03 inp obs) -> z = 1%Z \/ z = 4%Z \/ z = 5%Z.
Proof. exact R03MonObs.mon03_silent_on_accepted_partial. Qed.
Print Assumptions mon03_silent_on_accepted_partial.

(** ... and for clauses 1 and 4 the PREMISE is sound: incarnation by incarnation ([obl_sound],
    Run/R03MonObs.v), on every accepted observation, with NO further hypothesis: the incarnation's
    history is a run of the model from NewPersistentBlockList + NewPeriodicSyncer ([greachable]);
    if the monitor has seen the final synchronisation begin the model's list is closed for writing;
    if it has seen ProcessBlockPut return the model's put loop has exited; and whenever the monitor
    carries its acknowledged copies as obligations into the next incarnation ([m_prev] of
    [mon_exit] is 1 = graceful or 2 = crash after a commit that began after the last Put /
    finalizer), the state the next incarnation is restored from ([x_state]) is the state of the
    model's newest completed write, whose cohort is EVERY acknowledgement of the model and which
    covers each of them (so by [record_resolves_after_restart] their index records resolve on the
    restarted list unless rotation had evicted the block). *)
Theorem mon03_obligations_sound : forall inp obs, replay03 inp obs = [] ->
  let c := sx_nth inp 0 in
  obl_sound c (sx_nth inp 1) c (mkConfig (sx_N (sx_nth c 9)) (sx_N (sx_nth c 10))) (sx_Z (sx_nth c 0))
            (sx_list (sx_nth inp 2)) (sx_list obs) m_init init_pstate 0%N.
Proof. exact R03MonObs.mon03_obligations_sound. Qed.
Print Assumptions mon03_obligations_sound.

(** ... and over SEVERAL restarts: the monitor keeps a copy as an obligation over any number of
    incarnations as long as every exit in between was graceful or followed a completed commit, while
    the ghost of Shutdown.v starts every incarnation empty.  [chain_sound] (Run/R03MonInherit.v) starts
    the ghost of the next incarnation on the acknowledgements the previous one left covered and still
    listed ([inh_list], renumbered relative to the written state; sound because a covered
    acknowledgement satisfies the invariant of the restarted list, [G_inherit]): for every accepted
    observation in which every restart re-attached all blocks of the state file ([all_restored_h],
    decidable), every incarnation is a run
    of the model from NewPersistentBlockList on the state its predecessor left, and whenever the monitor
    carries obligations on, the state on the medium covers every acknowledgement of this incarnation
    AND every inherited one (rotation out of the list being the only excuse); moreover at EVERY point
    of every incarnation's history ([acks_resolve], for every prefix of the entries) every
    acknowledgement made so far or inherited is evicted or its index record — the BlockReference
    written at acknowledgement time — resolves on the current list to its block with its epoch seed,
    below the write cursor (distances < 2^32 epochs, < 2^16 blocks as in
    [record_resolves_after_restart]). *)
Theorem mon03_obligations_sound_chain : forall inp obs, replay03 inp obs = [] ->
  forallb all_restored_h (sx_list obs) = true ->
  let c := sx_nth inp 0 in
  chain_sound c (sx_nth inp 1) c (mkConfig (sx_N (sx_nth c 9)) (sx_N (sx_nth c 10))) (sx_Z (sx_nth c 0))
              (sx_list (sx_nth inp 2)) (sx_list obs) m_init init_pstate 0%N [].
Proof. exact R03MonInherit.mon03_obligations_sound_chain. Qed.
Print Assumptions mon03_obligations_sound_chain.

(** ... and the objects of those obligations ARE acknowledgements of the model.  The monitor keeps, per
    acknowledged upload, the key and the LOCATION of the block its BlockList.Put went into, and
    drops the copy when a PopFront at full occupancy removes the block at that location; the model's
    ghost keeps the absolute block index and the BlockReference written into the index record.
    Run/R03MonCopies.v runs a second bookkeeping [lst] alongside the monitor (which Put belongs to which
    upload slot, which finalizer returned OK in the current op segment, which reference each copy's
    finalizer reported: [l_cr]) and proves, for every accepted incarnation history satisfying the
    decidable link checks [l_all] (every PopFront at full occupancy — the only eviction the monitor
    excuses; a copy's upload had, with no PopFront since, an OK finalizer in its op segment, the one of
    the Put recorded for its slot; no second restore entry): the monitor's view of the list [m_live] is the list of the locations of
    the model's blocks; every copy made in this incarnation has an acknowledgement of the model with
    the reference its finalizer reported, NOT evicted, whose block sits at the copy's location; and if
    the monitor carries the copy into the next incarnation as an obligation, the state the next
    incarnation is restored from covers that acknowledgement and still lists its block, so the
    reference resolves on the restarted list to that block with its seed, below the restored write
    cursor.  What remains between this and "clauses 1, 4 silent" is the store above the block list:
    that the read-back finds the index record (key-location map) and that the old/current/new map
    admits the block. *)
Theorem mon03_owed_copies_resolve : forall c cfg bs st0 now e0 es x0 x1 cfgsx objs ops m0,
  replay_restore c cfg bs st0 now e0 = Some x0 ->
  replay_entries cfg bs 1 x0 es = (x1, []) ->
  m_fresh m0 -> m_start m0 ->
  l_all cfgsx objs ops (mon_entry cfgsx objs ops m0 e0) (l0 (old_crs m0)) es = true ->
  let m1 := fold_left (mon_entry cfgsx objs ops) (e0 :: es) m0 in
  let l1 := l_fold cfgsx objs ops (mon_entry cfgsx objs ops m0 e0) (l0 (old_crs m0)) es in
  map fst (l_cr l1) = m_copies m1 /\
  m_live m1 = map fst (locs (s_pbl (x_sys x1))) /\
  exists alloc oldest init gx, greachable cfg alloc oldest init now (x_sys x1) gx /\
  forall cp ref, In (cp, ref) (l_cr l1) -> c_old cp = false ->
    exists a, In a (g_acks (gs_g gx)) /\ a_ref a = (fst (fst ref), snd (fst ref)) /\ a_seed a = snd ref /\
      totalReleased (s_pbl (x_sys x1)) <= a_abs a /\
      loc_at (x_sys x1) (a_abs a) = Some (c_loc cp) /\
      (m_prev (mon_exit m1) <> 0%Z ->
         exists w rest, gs_writes gx = w :: rest /\ x_state x1 = gw_state w /\ covers w a /\
           gw_base_abs w <= a_abs a /\
           ((N.of_nat (a_ep a - gw_base_ep w) < 2 ^ 32)%N -> (Z.of_nat (a_last a - a_abs a) < 2 ^ 16)%Z ->
            ref_to_index (fst (fst ref)) (snd (fst ref)) (restart_of (x_state x1))
              = Ok (Some (a_abs a - gw_base_abs w, snd ref)) /\
            exists b, nth_error (blocks (restart_of (x_state x1))) (a_abs a - gw_base_abs w) = Some b /\
                      (a_end a <= b_written b)%Z)).
Proof. exact R03MonCopies.mon03_owed_copies_resolve. Qed.
Print Assumptions mon03_owed_copies_resolve.

(** ... which closes clauses 1 and 4 up to ONE statement about the store above the block list, made
    explicit as the decidable check [r_obs] (Run/R03MonReadback.v; it contains the link checks of
    [mon03_owed_copies_resolve], "every restart re-attaches all blocks of the state file", fewer than
    2^16 listed blocks / 2^32 listed epochs, and per read-back entry (32 k ...), evaluated on the replay's
    MODEL state: if the BlockReference of an owed copy of key k resolves on the model's current list with
    its seed, the entry reports the key readable — "the store finds what the block list resolves", the
    business of the key-location map and the old/current/new map, C06 / C05).  For this the copies'
    acknowledgements are carried over restarts together with their block LOCATIONS ([Sn]: a state
    snapshot lists, in order, the locations of the blocks of its moment; [carry_ack]), so inherited
    copies are live acknowledgements too, and every live acknowledgement resolves at every point.
    [r_obs] cannot be dropped ([mon03_r_obs_is_needed]). *)
Theorem mon03_clauses14_silent : forall inp obs, replay03 inp obs = [] -> r_obs inp obs = true ->
  forall z, In z (mon03 inp obs) -> z <> 1%Z /\ z <> 4%Z.
Proof. exact R03MonReadback.mon03_clauses14_silent. Qed.
Print Assumptions mon03_clauses14_silent.

(** all clauses but "wrong bytes": on every observation the model accepts and whose op results /
    read-backs are consistent with the recorded block-list history in the sense of the two decidable
    checks, the monitor can only report clause 5 *)
Theorem mon03_silent_on_accepted_partial2 : forall inp obs,
  is_marker obs = false -> replay03 inp obs = [] -> u_obs inp obs = true -> r_obs inp obs = true ->
  forall z, In z (mon03 inp obs) -> z = 5%Z.
Proof. exact R03MonReadback.mon03_silent_on_accepted_partial2. Qed.
Print Assumptions mon03_silent_on_accepted_partial2.

(** one incarnation, spelled out *)
Theorem mon03_incarnation_sound : forall c cfg bs st0 now e0 es x0 x1 cfgsx objs ops m0,
  replay_restore c cfg bs st0 now e0 = Some x0 ->
  replay_entries cfg bs 1 x0 es = (x1, []) ->
  m_fresh m0 ->
  let m1 := fold_left (mon_entry cfgsx objs ops) (e0 :: es) m0 in
  exists alloc oldest init gx,
    greachable cfg alloc oldest init now (x_sys x1) gx /\
    x_state x1 = match gs_writes gx with w :: _ => gw_state w | [] => st0 end /\
    (m_final m1 = true -> closedForWriting (s_pbl (x_sys x1)) = true) /\
    (m_exited m1 = true -> s_p (x_sys x1) = PExit) /\
    (m_prev (mon_exit m1) <> 0%Z ->
       exists w rest, gs_writes gx = w :: rest /\ x_state x1 = gw_state w /\
                      gw_cohort w = g_acks (gs_g gx) /\
                      forall a, In a (g_acks (gs_g gx)) -> covers w a).
Proof. exact R03Mon.mon03_incarnation_sound. Qed.
Print Assumptions mon03_incarnation_sound.

(** once the monitor's final flag is set, every finalizer entry the model accepts is a refusal
    (class 1, errClosedForWriting) or the block's own error (class 3): the model never acknowledges *)
Theorem mon03_no_ack_after_final : forall o cfg bs m x gx e x',
  G o (x_sys x) gx -> J m (x_sys x) gx -> m_final m = true ->
  tag e = 4%Z -> replay_entry cfg bs x e = Some x' ->
  sx_Z (sx_nth e 2) = 1%Z \/ sx_Z (sx_nth e 2) = 3%Z.
Proof. exact R03Mon.mon03_no_ack_after_final. Qed.
Print Assumptions mon03_no_ack_after_final.

(** non-vacuity: two observations of the REAL code (Run/R03MonEx.v) meet the hypotheses; in the
    first the monitor carries one obligation out of a graceful shutdown that refused an upload, in the
    second two obligations out of a crash after a commit *)
Definition first_inc (inp obs : sx) : mst :=
  mon_incs (sx_nth inp 0) (sx_nth inp 1) (firstn 1 (sx_list (sx_nth inp 2))) (firstn 1 (sx_list obs)) m_init.

Example mon03_hyps_nonvacuous_graceful :
  is_marker exg_obs = false /\ replay03 exg_inp exg_obs = [] /\ u_obs exg_inp exg_obs = true /\
  mon03 exg_inp exg_obs = [] /\ length (sx_list exg_obs) = 2 /\
  forallb all_restored_h (sx_list exg_obs) = true /\ l_obs exg_inp exg_obs = true /\ r_obs exg_inp exg_obs = true /\
  m_prev (first_inc exg_inp exg_obs) = 1%Z /\ length (m_copies (first_inc exg_inp exg_obs)) = 1 /\
  existsb (fun e => Z.eqb (tag e) 4 && Z.eqb (sx_Z (sx_nth e 2)) 1) (sx_list (sx_nth exg_obs 0)) = true.
Proof. vm_compute. repeat split; reflexivity. Qed.

Example mon03_hyps_nonvacuous_crash :
  is_marker exc_obs = false /\ replay03 exc_inp exc_obs = [] /\ u_obs exc_inp exc_obs = true /\
  mon03 exc_inp exc_obs = [] /\ length (sx_list exc_obs) = 3 /\
  forallb all_restored_h (sx_list exc_obs) = true /\ l_obs exc_inp exc_obs = true /\ r_obs exc_inp exc_obs = true /\
  m_prev (first_inc exc_inp exc_obs) = 2%Z /\ length (m_copies (first_inc exc_inp exc_obs)) = 2.
Proof. vm_compute. repeat split; reflexivity. Qed.

(** the hypothesis [u_obs] cannot be dropped: the replay validates the block-list / syncer call
    history, not the results of the store's own operations.  [exb_obs] is [exg_obs] with the result of
    the refused upload altered by hand from UNAVAILABLE to OK (not an observation of the code): the
    model still accepts it, [u_obs] rejects it, and the monitor reports clause 2. *)
Example mon03_u_obs_is_needed :
  is_marker exb_obs = false /\ replay03 exg_inp exb_obs = [] /\ u_obs exg_inp exb_obs = false /\
  mon03 exg_inp exb_obs = [2%Z].
Proof. vm_compute. repeat split; reflexivity. Qed.

(** likewise [r_obs]: [exr_obs] is [exg_obs] with the read-back of the owed key 0 altered by hand to
    NOT_FOUND (not an observation of the code): the model still accepts it, [r_obs] rejects it, the
    monitor reports clause 1 *)
Example mon03_r_obs_is_needed :
  replay03 exg_inp exr_obs = [] /\ u_obs exg_inp exr_obs = true /\ r_obs exg_inp exr_obs = false /\
  mon03 exg_inp exr_obs = [1%Z].
Proof. vm_compute. repeat split; reflexivity. Qed.
