(** C12 — Sharding: deterministic, order-independent routing with minimal
    disruption.  The lemmas the statements rest on are in the files of
    Sharding/ and, for the monitor theorems, in Run/R12Proofs.v. *)
From Coq Require Import List NArith Lia Permutation.
From BBS Require Import Common.Sx Common.SxFactsMA Common.ListX Generated.Consts
     Sharding.Rendezvous Sharding.RendezvousArith Sharding.RendezvousProofs
     Sharding.MonSilentSel Run.R12 Run.R12Proofs.
Import ListNotations.
Open Scope N_scope.

(** [select cfg h] is the (key hash, weight) pair chosen by the code's
    constructor + GetShard for the shard map [cfg] (pairs in configuration
    order); [valid cfg]: non-empty, distinct key hashes, weights >= 1. *)

(** The fixed-point logarithm never reaches 64<<16, so the score's divisor is
    never zero, and every score is positive (the loop's initial best = 0 is
    therefore never returned by accident). *)
Theorem log2_fixed_below_64 : forall x, x < 2 ^ 64 -> log2_fixed x < N.shiftl 64 16.
Proof. exact log2_fixed_lt. Qed.
Print Assumptions log2_fixed_below_64.

Theorem scores_are_positive : forall x w, x < 2 ^ 64 -> 1 <= w -> 1 <= score x w.
Proof. exact score_pos. Qed.
Print Assumptions scores_are_positive.

(** The chosen shard maximises (score, then smaller key hash) over the set. *)
Theorem chosen_shard_is_the_maximum : forall cfg h,
  valid cfg -> h < 2 ^ 64 ->
  exists p, select cfg h = Some p /\ is_bestP (scoreP h) cfg p.
Proof. intros cfg h Hv _. exact (select_best cfg h Hv). Qed.
Print Assumptions chosen_shard_is_the_maximum.

(** The index returned by GetShard designates that shard in configuration order. *)
Theorem returned_index_designates_chosen_shard : forall cfg sel h,
  valid cfg -> h < 2 ^ 64 -> new_selector cfg = Some sel ->
  nth_error cfg (get_shard sel h) = select cfg h.
Proof. intros cfg sel h Hv _. exact (get_shard_index cfg sel h Hv). Qed.
Print Assumptions returned_index_designates_chosen_shard.

Theorem order_of_shards_is_irrelevant : forall cfg1 cfg2 h,
  valid cfg1 -> h < 2 ^ 64 -> Permutation cfg1 cfg2 -> select cfg1 h = select cfg2 h.
Proof. intros cfg1 cfg2 h Hv _. exact (select_perm cfg1 cfg2 h Hv). Qed.
Print Assumptions order_of_shards_is_irrelevant.

Theorem removing_a_shard_reroutes_only_its_objects : forall cfg k h p,
  valid cfg -> h < 2 ^ 64 -> select cfg h = Some p -> fst p <> k ->
  select (remove_key k cfg) h = Some p.
Proof. intros cfg k h p Hv _. exact (select_remove cfg k h p Hv). Qed.
Print Assumptions removing_a_shard_reroutes_only_its_objects.

Theorem adding_a_shard_reroutes_only_to_it : forall cfg p h,
  valid cfg -> valid (p :: cfg) -> h < 2 ^ 64 ->
  select (p :: cfg) h = Some p \/ select (p :: cfg) h = select cfg h.
Proof. intros cfg p h Hv Hv' _. exact (select_add cfg p h Hv Hv'). Qed.
Print Assumptions adding_a_shard_reroutes_only_to_it.

Theorem choice_independent_of_irrelevant_shards : forall cfgS cfgT h p q,
  valid cfgS -> valid cfgT -> h < 2 ^ 64 ->
  select cfgS h = Some p -> select cfgT h = Some q -> In p cfgT -> In q cfgS -> p = q.
Proof. intros cfgS cfgT h p q HvS HvT _. exact (select_iia cfgS cfgT h p q HvS HvT). Qed.
Print Assumptions choice_independent_of_irrelevant_shards.

(** The composite: [route] depends on the leading hash bytes only (there is
    no instance name or operation in its domain); FindMissing. *)
Theorem find_missing_asks_each_shard_only_its_own : forall sel nb oracle ds i p x,
  In (i, p) (fst (find_missing sel nb oracle ds)) -> In x p ->
  exists d, In d ds /\ snd d = x /\ route sel d = i.
Proof. exact fm_asks_own_only. Qed.
Print Assumptions find_missing_asks_each_shard_only_its_own.

Theorem find_missing_asks_about_every_digest : forall sel nb oracle ds d,
  In d ds -> (route sel d < nb)%nat ->
  exists p, In (route sel d, p) (fst (find_missing sel nb oracle ds)) /\ In (snd d) p.
Proof. exact fm_every_digest_asked. Qed.
Print Assumptions find_missing_asks_about_every_digest.

Theorem find_missing_returns_the_union : forall sel nb oracle ds res,
  snd (find_missing sel nb oracle ds) = Some res ->
  strictly_sorted res /\
  forall x, In x res <->
            exists i p m, In (i, p) (fst (find_missing sel nb oracle ds))
                          /\ oracle i p = Some m /\ In x m.
Proof.
  intros sel nb oracle ds res.
  rewrite find_missing_result. generalize (fst (find_missing sel nb oracle ds)). intros asked H.
  apply fm_collect_some in H. destruct H as [_ ->]. split; [apply dedup_sort_sorted|].
  intros x. split.
  - intros Hx. apply dedup_sort_in, in_concat in Hx. destruct Hx as (l & Hl & Hx).
    apply in_map_iff in Hl. destruct Hl as (a & <- & Hin).
    apply in_map_iff in Hin. destruct Hin as ([i p] & <- & Hip).
    destruct (oracle i p) as [m|] eqn:Ho; [|destruct Hx]. exists i, p, m. auto.
  - intros (i & p & m & Hip & Ho & Hx). apply dedup_sort_in, in_concat. exists m. split; [|exact Hx].
    apply in_map_iff. exists (Some m). split; [reflexivity|].
    apply in_map_iff. exists (i, p). split; [exact Ho|exact Hip].
Qed.
Print Assumptions find_missing_returns_the_union.

Theorem find_missing_backend_failure_is_not_masked : forall sel nb oracle ds i p,
  In (i, p) (fst (find_missing sel nb oracle ds)) -> oracle i p = None ->
  snd (find_missing sel nb oracle ds) = None.
Proof.
  intros sel nb oracle ds i p Hin Ho. rewrite find_missing_result. apply fm_collect_none.
  apply in_map_iff. exists (i, p). split; [exact Ho|exact Hin].
Qed.
Print Assumptions find_missing_backend_failure_is_not_masked.

(** Non-vacuity / documentation: with a zero weight the chosen index does
    depend on the listing order, which is why weights must be non-zero. *)
Example weight0_order_dependent :
  exists cfg1 cfg2 sel1 sel2 h,
    Permutation cfg1 cfg2 /\ new_selector cfg1 = Some sel1 /\ new_selector cfg2 = Some sel2 /\
    nth_error cfg1 (get_shard sel1 h) <> nth_error cfg2 (get_shard sel2 h).
Proof.
  exists [(5, 0); (9, 0)], [(9, 0); (5, 0)].
  eexists. eexists. exists 1. split; [apply perm_swap|].
  split; [vm_compute; reflexivity|]. split; [vm_compute; reflexivity|].
  vm_compute. discriminate.
Qed.

Example valid_example : valid [(5, 1); (9, 4294967295); (2 ^ 64 - 1, 3)].
Proof.
  split; [discriminate|]. split.
  - cbn [map fst]. constructor; [intros [H|[H|[]]]; discriminate H|].
    constructor; [intros [H|[]]; discriminate H|]. constructor; [intros []|constructor].
  - intros p [<-|[<-|[<-|[]]]]; (split; [reflexivity|discriminate]).
Qed.

(** ** The monitors are silent on the model (and on every observation the
    judge accepts as agreeing with it).

    [mon12_sel]/[mon12_ba] are the property as decidable checks on an
    observation.  Selector cases: for every input in which each variant
    accepted by the constructor has weights >= 1 ([wf12_sel]; NO bound on
    hashes or key hashes -- splitmix64 wraps), the monitor does not fire on
    the model's own output.  Blob-access cases: no hypothesis; moreover the
    monitor is silent on every observation [agree12_ba] accepts (a FindMissing
    failure may name any one of the failing shards).  Finally, for the judge
    that the driver runs: "agree" implies "no violation". *)
Theorem monitor_silent_on_model_selector : forall inp, wf12_sel inp -> mon12_sel inp (run12_sel inp) = nil.
Proof. exact mon12_sel_silent. Qed.
Print Assumptions monitor_silent_on_model_selector.

Theorem monitor_silent_on_model_blobaccess : forall inp, mon12_ba inp (run12_ba inp) = nil.
Proof. exact mon12_ba_silent. Qed.
Print Assumptions monitor_silent_on_model_blobaccess.

Theorem monitor_silent_on_allowed_observations : forall inp obs,
  agree12_ba inp obs = true -> mon12_ba inp obs = nil.
Proof. exact mon12_ba_silent_on_allowed. Qed.
Print Assumptions monitor_silent_on_allowed_observations.

Theorem judge_agree_implies_no_violation : forall inp obs,
  (sx_Z (sx_nth inp 0) = 0%Z -> wf12_sel inp) ->
  judged_agree (judge12 inp obs) = true -> judged_violates (judge12 inp obs) = false.
Proof. exact judge12_agree_not_violates. Qed.
Print Assumptions judge_agree_implies_no_violation.

(** [agree12_ba] is literally the agreement computed by [judge12]. *)
Theorem judge_fields_blobaccess : forall inp obs,
  sx_Z (sx_nth inp 0) <> 0%Z ->
  judged_agree (judge12 inp obs) = agree12_ba inp obs /\
  judged_violates (judge12 inp obs) = negb (match mon12_ba inp obs with nil => true | _ => false end).
Proof. exact judge12_ba_fields. Qed.
Print Assumptions judge_fields_blobaccess.

(** The hypothesis is needed: two zero-weight shards listed in both orders
    (the harness would execute this input -- it only refuses weights above
    2^32-1 -- but its generators never emit weight 0 and the property text
    excludes it).  Non-vacuity: a pool with a 70-bit key hash, the maximal
    weight, a 65-bit object hash and a rejected variant meets [wf12_sel]. *)
Example monitor_on_model_needs_nonzero_weights :
  let inp := L [A 0; L [L [A 0; A 5; A 0]; L [A 1; A 9; A 0]]; L [L [A 0; A 1]; L [A 1; A 0]]; L [A 1]]%Z in
  mon12_sel inp (run12_sel inp) = [1%Z].
Proof. exact mon12_sel_needs_nonzero_weights. Qed.

Example wf12_sel_nonvacuous :
  wf12_sel (L [A 0; L [L [A 0; A 5; A 1]; L [A 1; A (2 ^ 70); A 4294967295]; L [A 2; A 5; A 0]];
               L [L [A 0; A 1]; L [A 1; A 0]; L [A 0; A 2]]; L [A 1; A (2 ^ 64)]]%Z).
Proof. exact wf12_sel_example. Qed.
