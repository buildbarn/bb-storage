(** C16N — sub-check of C16: NESTED error handling.  A replacement buffer
    supplied by an error handler is itself a stream-backed buffer with its own
    error handler (WithErrorHandler around a buffer from another backend), to
    any depth: buffers are trees (Buffer/EHNest.v).  The error-handling
    reader of such a replacement is opened at the delivered offset of the
    reader that asked for it; the position it hands to ITS replacements is
    absolute (start offset + bytes it has handed out). *)
From Coq Require Import List ZArith NArith Bool Lia.
From BBS Require Import Common.Sx Buffer.Source Buffer.Validate Buffer.Convert Buffer.ErrHandler
  Buffer.ConvertProofs Buffer.EHFullCarry Buffer.EHFullPrefix
  Buffer.C09FuelSuffices Buffer.EHNest Buffer.EHNestCarry Buffer.EHNestRules
  Buffer.EHNestMoreRet Buffer.EHNestMoreRoot Buffer.EHNestMoreMon Buffer.EHNestMoreFuel Buffer.EHNestMoreDone
  Buffer.EHNestMoreTop Buffer.EHNestDepth Buffer.EHNestTooLong Run.R09 Run.R16 Run.R16N Run.R16NProofs.
Import ListNotations.

(** No duplicated and no skipped range, trees of any depth: when every plain
    buffer of the tree (the original and every replacement any handler at any
    depth supplies) carries the object [C], a call / stream that completes has
    handed the consumer exactly the expected slice of [C] - every byte once, in
    order - for ToByteSlice, IntoWriter, ReadAt (any offset / length),
    ToChunkReader (any offset / chunk size), ToReader (any read sizes); every
    buffer kind, every failure position, every handler script, any fuel. *)
Theorem no_dup_no_skip_nested : forall H cfg fuel C t m,
  tcarry C t -> m <> MDiscard ->
  completed m (z_err (run_tree H cfg fuel t m)) = true ->
  z_data (run_tree H cfg fuel t m) = expected_slice m C.
Proof. exact run_tree_no_dup_no_skip. Qed.
Print Assumptions no_dup_no_skip_nested.

(** "... or an error": whatever the outcome of a streaming method on a wrapped
    tree (validation failure, a handler's error at any level, out of fuel) the
    bytes handed out are a prefix of the expected slice: nothing duplicated,
    nothing skipped, nothing foreign. *)
Theorem delivered_is_prefix_nested : forall H cfg fuel C inner ans m,
  tcarry C (NW inner ans) -> streaming m ->
  exists rest, expected_slice m C = z_data (run_tree H cfg fuel (NW inner ans) m) ++ rest.
Proof. exact run_tree_delivered_prefix. Qed.
Print Assumptions delivered_is_prefix_nested.

(** The offset bookkeeping itself: a tree opened at ANY offset [k] carries
    [C[k..]], and the nested errorHandlingChunkReaders satisfy C16's carrier
    law (every read hands out the next piece, io.EOF only at the end): the
    [off] of an error-handling reader opened at [k] is [k] + bytes handed out,
    and that is where its replacements are opened. *)
Theorem nested_chunk_readers_resume_at_the_absolute_offset : forall C ifuel max,
  (forall t k, tcarry C t -> (k <= lenN C)%N -> I_ncr C (dropN k C) (nopen ifuel t k)) /\
  (forall fuel, claw (nread ifuel fuel max) (I_ncr C)).
Proof. intros C ifuel max. split; [apply nopen_carries|apply nread_claw]. Qed.
Print Assumptions nested_chunk_readers_resume_at_the_absolute_offset.

Theorem nested_readers_resume_at_the_absolute_offset : forall C ifuel,
  (forall t k, tcarry C t -> (k <= lenN C)%N -> I_nrd C (dropN k C) (nropen ifuel t k)) /\
  rlaw (nrread ifuel) (I_nrd C).
Proof. intros C ifuel. split; [apply nropen_carries|apply nrread_is_rlaw]. Qed.
Print Assumptions nested_readers_resume_at_the_absolute_offset.

(** Done() exactly once to EVERY handler that exists (the handlers around the
    buffer handed to the consumer and the handler of every wrapped replacement
    created at any depth), and the offering rule on the whole tree ([chk]: the
    I/O error of a plain buffer is offered to the innermost enclosing handler,
    the error a handler returns is what the enclosing handler is offered,
    nothing else is offered, the record has the shape of the scripts) - every
    tree whose readers attaching EOF to data have clean scripts, every method,
    any fuel ([exf]: the model's out-of-fuel marker counts as an I/O error). *)
Theorem done_once_and_offering_rule_nested : forall H cfg fuel t m,
  twf t ->
  chk exf (streamingb m) t (codes_of (z_tree (run_tree H cfg fuel t m))) = true /\
  od1 (z_tree (run_tree H cfg fuel t m)) = true.
Proof. exact run_tree_rules. Qed.
Print Assumptions done_once_and_offering_rule_nested.

(** ... and without the fuel marker among the offers this is the monitor's own clause 4 *)
Theorem offering_rule_is_the_monitor_clause : forall s t o,
  chk exf s t o = true -> nofuel o = true -> chk no_ex s t o = true.
Proof. intros s. exact (proj1 (chk_walk_no_ex s)). Qed.
Print Assumptions offering_rule_is_the_monitor_clause.

(** Whole-operation retries (tryRepeatedly at every level of the tree): the
    record passes the check and an error result is justified by it. *)
Theorem whole_operation_retries_nested : forall H cfg fuel m t,
  wgood t (whole H cfg fuel m t).
Proof. intros H cfg fuel m. exact (proj1 (whole_rules H cfg fuel m)). Qed.
Print Assumptions whole_operation_retries_nested.

(** Done() exactly once to every handler that exists, INDEPENDENTLY of the
    offering rule and of any well-formedness of the scripts: every tree, every
    method, any fuel; and the observed tree is no deeper than the input tree
    (Buffer/EHNestMoreDone.v). *)
Theorem done_once_nested : forall H cfg fuel t m,
  od1 (z_tree (run_tree H cfg fuel t m)) = true /\
  (odepth (z_tree (run_tree H cfg fuel t m)) <= tdepth t)%nat.
Proof. exact run_tree_done_once. Qed.
Print Assumptions done_once_nested.

(** FUEL: [16 + tree_fuel t], the fuel [run16N] uses, suffices
    (Buffer/EHNestMoreFuel.v): for every tree, digest, hash function and every
    method with positive loop parameters the run neither ends in the
    out-of-fuel marker nor offers it to any handler at any depth ([noEF] of the
    observed tree).  Monotone in the fuel. *)
Theorem tree_fuel_suffices : forall H cfg fuel t m,
  (16 + tree_fuel t <= fuel)%nat -> good_param m = true ->
  z_err (run_tree H cfg fuel t m) <> EFuel /\ noEF (z_tree (run_tree H cfg fuel t m)) = true.
Proof. exact EHNestMoreFuel.tree_fuel_suffices. Qed.
Print Assumptions tree_fuel_suffices.

(** Clause 2 on the model (Buffer/EHNestMoreRet.v, EHNestMoreRoot.v): when the
    last answer of the OUTERMOST handler was the error [x], the consumer's
    result is [ECode x] - every method, every tree, any fuel that does not run
    out; for ToReader: or the validator's own error code (next theorem). *)
Theorem outermost_handler_error_is_result_nested : forall H cfg fuel inner ans m,
  z_err (run_tree H cfg fuel (NW inner ans) m) <> EFuel ->
  match z_tree (run_tree H cfg fuel (NW inner ans) m) with
  | ONode offs _ _ =>
      forall x, returnedN ans (length offs) = Some x ->
        z_err (run_tree H cfg fuel (NW inner ans) m) = ECode x \/
        (is_to_reader m = true /\ z_err (run_tree H cfg fuel (NW inner ans) m) = ECode (g_code cfg))
  | OLeaf _ => True
  end.
Proof. exact run_tree_clause2. Qed.
Print Assumptions outermost_handler_error_is_result_nested.

(** REFUTATION of "the monitor is silent on the model for every input of
    [dom16N]": clause 2 of [mon16N] fires on the model's own observation for
    [w2_inp] (notes/c16n-clause2-false-alarm.case; replayed on the real code:
    the implementation's observation is the model's).  ToReader with one read of 8
    bytes on WithErrorHandler(chunk-reader buffer "ab" + error 4, handler
    answering 7), digest size 1: the chunk-reader-backed reader hands out "ab"
    together with the error, the handler turns it into 7, and the
    casValidatingReader rejects 2 bytes against a size of 1 before it looks at
    the error: the consumer gets 13 (INTERNAL), not 7.  C16's monitor excepts
    this situation ([toolong], Run/R16.v); the raw [mon16N] does not - it would be a
    false alarm of clause 2; the monitor the judge applies, [mon16Nx] (Run/R16N.v), has the
    exception. *)
Theorem monitor_clause_2_fires_on_the_model :
  dom16N w2_inp /\ mon16N w2_inp (run16N w2_inp) = [2%Z].
Proof. split; [exact w2_in_domain|exact (proj2 clause2_fires_on_the_model)]. Qed.
Print Assumptions monitor_clause_2_fires_on_the_model.

(** The monitor on the model's own observation, WITHOUT fuel or depth
    hypotheses on the run ([dom16NF], Buffer/EHNestMoreTop.v: every plain buffer
    carries the object, readers that attach EOF to data have clean scripts,
    the buffer handed to the consumer is wrapped, positive loop parameters, no
    handler is offered the gRPC code -3 (the code of the model's fuel marker; the
    harness's scripts use codes 1..16), positive final error code, input tree
    of depth <= 64): no clause other than 2 fires ... *)
Theorem monitor_on_model_all_but_clause_2 : forall inp,
  dom16NF inp -> forall c, In c (mon16N inp (run16N inp)) -> c = 2%Z.
Proof. exact mon16N_on_model_fuel. Qed.
Print Assumptions monitor_on_model_all_but_clause_2.

(** ... and none at all unless the method is ToReader and the run ends in the
    validator's own error code (the situation of the refutation above). *)
Theorem monitor_silent_on_model_nested : forall inp,
  dom16NF inp ->
  (is_to_reader (n_meth (dec_case16N inp)) = true ->
   z_err (out16N inp) <> ECode (g_code (n_cfg (dec_case16N inp)))) ->
  mon16N inp (run16N inp) = [].
Proof. exact mon16N_silent_on_model_fuel. Qed.
Print Assumptions monitor_silent_on_model_nested.

(** * The monitor the judge applies ([mon16Nx], Run/R16N.v): [mon16N] with the
    too-long exception on clause 2.  It reports a subset of what [mon16N] reports, so
    it is silent wherever [mon16N] is; on the refutation witness above it is silent
    (the exception is exactly that situation); it still reports clause 2 when the
    exception does not apply, and every other clause unchanged. *)
Theorem mon16Nx_incl : forall inp obs z, In z (mon16Nx inp obs) -> In z (mon16N inp obs).
Proof.
  intros inp obs z. unfold mon16Nx. destruct (toolong16N inp obs); [|exact (fun H => H)].
  intros H. apply filter_In in H. exact (proj1 H).
Qed.
Print Assumptions mon16Nx_incl.

Theorem mon16Nx_other_clauses_unchanged : forall inp obs z,
  z <> 2%Z -> In z (mon16N inp obs) -> In z (mon16Nx inp obs).
Proof.
  intros inp obs z Hz Hin. unfold mon16Nx. destruct (toolong16N inp obs); [|exact Hin].
  apply filter_In. split; [exact Hin|]. destruct (Z.eqb_spec z 2); [contradiction|reflexivity].
Qed.
Print Assumptions mon16Nx_other_clauses_unchanged.

Theorem judge_monitor_silent_on_model_nested : forall inp,
  dom16NF inp ->
  (is_to_reader (n_meth (dec_case16N inp)) = true ->
   z_err (out16N inp) <> ECode (g_code (n_cfg (dec_case16N inp)))) ->
  mon16Nx inp (run16N inp) = [].
Proof. intros inp Hd _. exact (mon16Nx_silent_on_model_F inp Hd). Qed.
Print Assumptions judge_monitor_silent_on_model_nested.

Theorem judge_monitor_on_model_only_clause_2_left : forall inp,
  dom16NF inp -> forall c, In c (mon16Nx inp (run16N inp)) -> c = 2%Z.
Proof. intros inp Hd c Hin. exact (monitor_on_model_all_but_clause_2 inp Hd c (mon16Nx_incl _ _ _ Hin)). Qed.
Print Assumptions judge_monitor_on_model_only_clause_2_left.

Example judge_monitor_silent_on_the_refutation_witness : mon16Nx w2_inp (run16N w2_inp) = [].
Proof. vm_compute. reflexivity. Qed.

(** * No depth hypothesis (Buffer/EHNestDepth.v).  [dom16NF] asks [tdepth <= 64] of
    the decoded tree because [tdepth (dec_tree 64 s) <= 64] is FALSE: the decoder
    cuts a deeper input with an error buffer, a leaf of depth 1 - the honest bound
    is [k + 1], and 65 is reached ([deep_tree_has_depth_65]).  The hypothesis is
    not needed: with depths that count an error buffer / a leaf observed with 0
    closes as 0 ([tdepth0], [odepth0]) the decoder stays within its fuel, the
    observed tree of EVERY run (any tree, method, fuel) is no deeper than the input
    tree, and the monitor's decoder [dec_ctree] is exact on observed trees of
    refined depth <= its fuel (out of fuel it answers [TLeaf 0], which is what an
    error buffer is observed as). *)
Theorem decoder_depth : forall k s,
  (tdepth0 (dec_tree k s) <= k)%nat /\ (tdepth (dec_tree k s) <= k + 1)%nat.
Proof. exact dec_tree_depths. Qed.
Print Assumptions decoder_depth.

Theorem observed_depth_nested : forall H cfg fuel t m,
  (odepth0 (z_tree (run_tree H cfg fuel t m)) <= tdepth0 t)%nat.
Proof. exact run_tree_depth0. Qed.
Print Assumptions observed_depth_nested.

Theorem monitor_decoder_exact : forall o n,
  (odepth0 o <= n)%nat -> dec_ctree n (enc_otree o) = codes_of o.
Proof. exact dec_enc_otree0. Qed.
Print Assumptions monitor_decoder_exact.

(** the monitor on the model's own observation is the monitor on the model's data: EVERY input *)
Theorem monitor_sees_the_model_run : forall inp,
  mon16N inp (run16N inp) =
  monN_data (n_tree (dec_case16N inp)) (n_meth (dec_case16N inp)) (n_obj (dec_case16N inp))
            (z_data (out16N inp)) (C09FullMonitor.code_of (z_err (out16N inp))) (codes_of (z_tree (out16N inp))).
Proof. exact mon16N_decoded0. Qed.
Print Assumptions monitor_sees_the_model_run.

(** [dom16NG] = [dom16NF] without its depth conjunct: no fuel and no depth hypothesis *)
Theorem dom16NF_is_in_dom16NG : forall inp, dom16NF inp -> dom16NG inp.
Proof. exact dom16NF_dom16NG. Qed.
Print Assumptions dom16NF_is_in_dom16NG.

Theorem monitor_on_model_all_but_clause_2_nodepth : forall inp,
  dom16NG inp -> forall c, In c (mon16N inp (run16N inp)) -> c = 2%Z.
Proof. exact mon16N_on_model_nodepth. Qed.
Print Assumptions monitor_on_model_all_but_clause_2_nodepth.

Theorem monitor_silent_on_model_nested_nodepth : forall inp,
  dom16NG inp ->
  (is_to_reader (n_meth (dec_case16N inp)) = true ->
   z_err (out16N inp) <> ECode (g_code (n_cfg (dec_case16N inp)))) ->
  mon16N inp (run16N inp) = [].
Proof. exact mon16N_silent_on_model_nodepth. Qed.
Print Assumptions monitor_silent_on_model_nested_nodepth.

(** non-vacuity: 64 handlers around a buffer; decoded depth 65: outside [dom16NF], inside [dom16NG] *)
Example deep_tree_has_depth_65 :
  tdepth (n_tree (dec_case16N deep_inp)) = 65%nat /\ tdepth0 (n_tree (dec_case16N deep_inp)) = 64%nat.
Proof. exact deep_tree_depth. Qed.
Example deep_input_in_domain : dom16NG deep_inp /\ ~ dom16NF deep_inp.
Proof. split; [exact deep_in_domain|exact deep_not_in_old_domain]. Qed.
Example deep_input_monitor_silent : mon16N deep_inp (run16N deep_inp) = [].
Proof. exact deep_monitor_silent. Qed.

(** * The judge's monitor is silent on the model, EVERY input of the domain
    (Buffer/EHNestTooLong.v).  Clause 2 on the model with the ToReader alternative
    made explicit: when the outermost handler's last answer was the error [x] and
    the consumer got the validator's own code instead, the object the tree carries
    is LONGER than the digest's size.  (The casValidatingReader produces its own
    code for data exceeding bytesRemaining - checked before the error that came
    with the data - and for a byte obtained by the final io.ReadFull, which drops
    the error that came with it: in both the bytes handed out, a prefix of the
    object, exceed the size; its other two uses need io.EOF from the reader, and a
    root handler passing on io.EOF has not answered with an error.) *)
Theorem outermost_handler_error_is_result_nested_or_too_long : forall H cfg fuel C inner ans m,
  tcarry C (NW inner ans) ->
  z_err (run_tree H cfg fuel (NW inner ans) m) <> EFuel ->
  match z_tree (run_tree H cfg fuel (NW inner ans) m) with
  | ONode offs _ _ =>
      forall x, returnedN ans (length offs) = Some x ->
        z_err (run_tree H cfg fuel (NW inner ans) m) = ECode x \/
        (is_to_reader m = true /\ z_err (run_tree H cfg fuel (NW inner ans) m) = ECode (g_code cfg) /\
         (g_size cfg < lenN C)%N)
  | OLeaf _ => True
  end.
Proof. exact run_tree_clause2_toolong. Qed.
Print Assumptions outermost_handler_error_is_result_nested_or_too_long.

(** when clause 2 of the raw monitor fires on the model, the exception of [mon16Nx] applies *)
Theorem clause_2_on_model_is_the_too_long_exception : forall inp,
  dom16NG inp -> In 2%Z (mon16N inp (run16N inp)) -> toolong16N inp (run16N inp) = true.
Proof. exact mon16N_clause2_toolong. Qed.
Print Assumptions clause_2_on_model_is_the_too_long_exception.

(** THE MONITOR THE JUDGE APPLIES IS SILENT ON THE MODEL: every input of [dom16NG]
    (hence of [dom16NF]), every clause, no condition on how the run ends. *)
Theorem judge_monitor_silent_on_model_nested_all : forall inp,
  dom16NG inp -> mon16Nx inp (run16N inp) = [].
Proof. exact mon16Nx_silent_on_model. Qed.
Print Assumptions judge_monitor_silent_on_model_nested_all.

Theorem judge_monitor_silent_on_model_nested_all_F : forall inp,
  dom16NF inp -> mon16Nx inp (run16N inp) = [].
Proof. exact mon16Nx_silent_on_model_F. Qed.
Print Assumptions judge_monitor_silent_on_model_nested_all_F.

(** non-vacuity: the refutation witness of the raw monitor is in the domain *)
Example refutation_witness_in_domain : dom16NG w2_inp.
Proof.
  unfold dom16NG. repeat match goal with |- _ /\ _ => split end.
  - vm_compute. reflexivity.
  - vm_compute. exact I.
  - vm_compute. reflexivity.
  - vm_compute. reflexivity.
  - intros x E. vm_compute in E. inversion E. lia.
Qed.

(** * Non-vacuity.  The shrunk witness of seeded change C16-c (corpus/C16N):
    WithErrorHandler(WithErrorHandler(stream failing after 2 bytes, h1), h0);
    h1's replacement is WithErrorHandler(stream failing after 2 bytes, h2) -
    opened at offset 2, it fails at once; h2 supplies a reader buffer with
    the whole object; ToChunkReader(0, 2). *)
Definition ex_inp : sx := L [A 0; L [A 2; L [A 0; A 0; A 0; A 1; A 0; A 0; A 0; A 0; A 0; A 6; A 0; A 0; A 0; A 0; A 0; A 0; A 0; A 0; A 0; A 0]; A 6]; L [A 4; L [A 4; L [A 0; L [L [A 0; L [A 98; A 99]]; L [A 1; A 6]]]; L [L [A 0; L [A 4; L [A 0; L [L [A 0; L [A 98; A 99]]; L [A 1; A 6]]]; L [L [A 0; L [A 1; A 1; L [L [A 0; L [A 98; A 99; A 99; A 98; A 99; A 97]]]]]]]]]]; L []]; L [A 3; A 0; A 2; A 1]; L [L [L [A 98; A 99; A 99; A 98; A 99; A 97]; L [A 186; A 60; A 219; A 1; A 177; A 155; A 16; A 120; A 122; A 6; A 252; A 16; A 186; A 249; A 144; A 104; A 252; A 253; A 147; A 78]]; L [L [A 98; A 99]; L [A 91; A 37; A 5; A 3; A 154; A 197; A 175; A 158; A 25; A 127; A 93; A 173; A 4; A 17; A 57; A 6; A 169; A 207; A 154; A 42]]]; L [A 98; A 99; A 99; A 98; A 99; A 97]].
Definition ex_obs_seeded : sx := L [L [A 98; A 99; A 98; A 99]; A 3; L [A 3]; L []; L []; L [A 1; L []; A 1; L [L [A 1; L [A 6]; A 1; L [L [A 0; A 1]; L [A 1; L [A 6]; A 1; L [L [A 0; A 1]; L [A 0; A 1]]]]]]]].
Definition ex_obs_model : sx := L [L [A 98; A 99; A 99; A 98]; A 3; L [A 3]; L []; L []; L [A 1; L []; A 1; L [L [A 1; L [A 6]; A 1; L [L [A 0; A 1]; L [A 1; L [A 6]; A 1; L [L [A 0; A 1]; L [A 0; A 1]]]]]]]].

Example ex_in_domain : dom16NF ex_inp.
Proof.
  unfold dom16NF. repeat match goal with |- _ /\ _ => split end.
  - vm_compute. reflexivity.
  - vm_compute. exact I.
  - vm_compute. reflexivity.
  - vm_compute. reflexivity.
  - intros x E. vm_compute in E. inversion E. lia.
  - apply Nat.leb_le. vm_compute. reflexivity.
Qed.
(** the model resumes at offset 2 ... *)
Example ex_model_run : run16N ex_inp = ex_obs_model.
Proof. vm_compute. reflexivity. Qed.
Example ex_monitor_silent_on_model : mon16N ex_inp (run16N ex_inp) = [].
Proof. vm_compute. reflexivity. Qed.
(** ... the implementation with [off: off] dropped resumes at offset 0 and hands
    out bytes 0-1 a second time: clause 7 fires *)
Example ex_monitor_fires_on_seeded_observation : mon16N ex_inp ex_obs_seeded = [7%Z].
Proof. vm_compute. reflexivity. Qed.
Example ex_tree_carries : tcarry [98; 99; 99; 98; 99; 97]%N (n_tree (dec_case16N ex_inp)).
Proof.
  apply (proj1 (tree_ok_carries _)). vm_compute. reflexivity.
Qed.
