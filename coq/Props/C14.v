(** C14 — ByteStream / ContentAddressableStorage RPCs (the ActionCache is in
    Props/C14A.v).  Proofs are in Rpc/*Proofs.v and Run/R14Proofs.v; the
    Examples are proved here.

    All theorems hold for every hash function [hashf], every decoder
    [decompress] and every encoder [compress]; the round-trip law
    [decompress (compress x) = DOk x] is a premise where it is needed
    (zstd itself is library behaviour: modelled, not verified).
    The zstd paths are the REPAIRED ones (findings F2, F6, F7).

    [0 <= d_size d]: digests come out of the resource-name / proto parsers,
    which reject negative sizes (C20). *)
From Coq Require Import List ZArith Bool Lia.
From BBS Require Import Rpc.ByteStream Rpc.Batch Rpc.ClientServer
  Rpc.ByteStreamProofs Rpc.BatchProofs Rpc.ClientServerProofs.
Import ListNotations.
Open Scope Z_scope.

(** ** Uploads.  For ALL message sequences and terminals, all backend modes:
    an identity upload is stored only if the offsets start at zero and are
    contiguous, finish_write is set on the last message and on no other, the
    client half-closed afterwards, and the concatenated data matches the
    digest; what is stored is that concatenation. *)
Theorem write_stores_only_if : forall hashf decompress pm d ms t x,
  0 <= d_size d ->
  wr_stored (write hashf decompress pm (RIdentity d) ms t) = Some x ->
  contiguous 0 ms /\ finished_at_end ms /\ t = TEof /\ x = payload ms /\ valid hashf d x = true
  /\ wr_code (write hashf decompress pm (RIdentity d) ms t) = 0.
Proof. exact write_identity_stores_only_if. Qed.
Print Assumptions write_stores_only_if.

(** Compressed uploads: the upload is the prefix of the message sequence up
    to the first finish_write (the service does not read further); it starts
    at offset zero, is contiguous, and the stored bytes are what the decoder
    makes of the concatenated data — and match the digest.  ([decoded] covers
    [DOk] and the truncated-tail case [DTrunc], see Rpc/ByteStream.v.) *)
Theorem write_stores_only_if_zstd : forall hashf decompress pm d ms t x,
  wr_stored (write hashf decompress pm (RZstd d) ms t) = Some x ->
  exists pre post, ms = pre ++ post /\ contiguous 0 pre /\ finished_at_end pre
    /\ decoded (decompress (payload pre)) = Some x /\ valid hashf d x = true.
Proof. exact write_zstd_stores_only_if. Qed.
Print Assumptions write_stores_only_if_zstd.

(** ... and conversely every such upload is stored (so the conditions are exact). *)
Theorem write_stores_if : forall hashf decompress d ms,
  contiguous 0 ms -> finished_at_end ms -> valid hashf d (payload ms) = true -> d_size d <= backend_max ->
  write hashf decompress 0 (RIdentity d) ms TEof = mkWres 0 [] (d_size d) (Some (payload ms)).
Proof. exact write_identity_stores_if. Qed.
Print Assumptions write_stores_if.

Theorem write_stores_if_zstd : forall hashf decompress d ms x,
  contiguous 0 ms -> finished_at_end ms -> decompress (payload ms) = DOk x ->
  valid hashf d x = true -> d_size d <= backend_max ->
  write hashf decompress 0 (RZstd d) ms TEof = mkWres 0 [] (blen (payload ms)) (Some x).
Proof. exact write_zstd_stores_if. Qed.
Print Assumptions write_stores_if_zstd.

(** In every other case the RPC fails and nothing becomes visible: any
    resource name, any message sequence, any stream or backend error. *)
Theorem otherwise_nothing_visible : forall hashf decompress pm rn ms t,
  wr_code (write hashf decompress pm rn ms t) <> 0 ->
  wr_stored (write hashf decompress pm rn ms t) = None.
Proof. exact write_failure_stores_nothing. Qed.
Print Assumptions otherwise_nothing_visible.

Theorem alternative_outcomes_are_failures : forall hashf decompress pm rn ms t c,
  In c (wr_alts (write hashf decompress pm rn ms t)) -> c <> 0.
Proof. exact write_alternatives_are_failures. Qed.
Print Assumptions alternative_outcomes_are_failures.

(** ** Reads.  For all offsets 0 <= k <= size and all chunk sizes the
    messages concatenate to exactly the bytes from k to the end (each message
    non-empty and at most one chunk long). *)
Theorem read_exact_suffix : forall compress d get content k chunk pieces,
  get d = inl content -> (0 < chunk)%nat -> 0 <= k <= blen content ->
  exists msgs, read compress (RIdentity d) 0 get k chunk pieces None = (0, msgs)
               /\ concat msgs = skipn (Z.to_nat k) content
               /\ forall m, In m msgs -> (0 < length m <= chunk)%nat.
Proof. exact read_identity_exact_suffix. Qed.
Print Assumptions read_exact_suffix.

(** Compressed reads: the messages decode to exactly the suffix, however the
    encoder cuts its output. *)
Theorem read_exact_suffix_zstd : forall decompress compress d get content k chunk pieces,
  (forall x, decompress (compress x) = DOk x) ->
  get d = inl content -> 0 <= k <= blen content ->
  exists msgs, read compress (RZstd d) 0 get k chunk pieces None = (0, msgs)
               /\ decompress (concat msgs) = DOk (skipn (Z.to_nat k) content).
Proof. exact read_zstd_exact_suffix. Qed.
Print Assumptions read_exact_suffix_zstd.

(** Any other offset: INVALID_ARGUMENT and no data, both compressors. *)
Theorem bad_offset_no_foreign_bytes : forall compress rn d get content k chunk pieces sf,
  rn = RIdentity d \/ rn = RZstd d ->
  get d = inl content -> ~ (0 <= k <= blen content) ->
  read compress rn 0 get k chunk pieces sf = (cInvalidArgument, []).
Proof. exact read_bad_offset_no_data. Qed.
Print Assumptions bad_offset_no_foreign_bytes.

Theorem read_backend_error_passes : forall compress rn d get c k chunk pieces sf,
  rn = RIdentity d \/ rn = RZstd d -> get d = inr c ->
  read compress rn 0 get k chunk pieces sf = (c, []).
Proof. exact read_backend_error_no_data. Qed.
Print Assumptions read_backend_error_passes.

(** Whatever the name, limit, offset and the message at which sending fails:
    what was sent is a prefix of the (compressed) suffix — never bytes from elsewhere. *)
Theorem read_never_bytes_from_elsewhere : forall compress rn limit get k chunk pieces sf,
  (0 < chunk)%nat ->
  let msgs := snd (read compress rn limit get k chunk pieces sf) in
  msgs = [] \/
  exists d content rest, get d = inl content /\ 0 <= k <= blen content /\
    ((rn = RIdentity d /\ skipn (Z.to_nat k) content = concat msgs ++ rest) \/
     (rn = RZstd d /\ compress (skipn (Z.to_nat k) content) = concat msgs ++ rest)).
Proof. exact read_sends_prefix_of_suffix. Qed.
Print Assumptions read_never_bytes_from_elsewhere.

(** ** Batches: one status per entry; stored iff OK; never a mismatch. *)
Theorem batch_update_per_object_status : forall hashf es i d data pm,
  nth_error es i = Some (d, data, pm) ->
  exists c o, nth_error (batch_update hashf es) i = Some (c, o)
    /\ (c = 0 <-> o <> None)
    /\ (forall x, o = Some x -> x = data /\ valid hashf d data = true).
Proof. exact batch_update_per_entry. Qed.
Print Assumptions batch_update_per_object_status.

Theorem batch_update_never_stores_mismatch : forall hashf es c x,
  In (c, Some x) (batch_update hashf es) ->
  exists d data pm, In (d, data, pm) es /\ x = data /\ valid hashf d x = true /\ c = 0.
Proof. exact BatchProofs.batch_update_never_stores_mismatch. Qed.
Print Assumptions batch_update_never_stores_mismatch.

Theorem batch_read_never_delivers_mismatch : forall hashf held maxsz ds rs i d,
  batch_read (fun d => backend_get hashf (held d) d) maxsz ds = Some rs ->
  nth_error ds i = Some d ->
  exists c x, nth_error rs i = Some (c, x)
    /\ (c = 0 -> held d = Some x /\ valid hashf d x = true)
    /\ (c <> 0 -> x = []).
Proof. exact BatchProofs.batch_read_never_delivers_mismatch. Qed.
Print Assumptions batch_read_never_delivers_mismatch.

Theorem batch_read_per_object_status : forall get maxsz ds rs,
  batch_read get maxsz ds = Some rs -> length rs = length ds.
Proof. exact batch_read_per_entry. Qed.
Print Assumptions batch_read_per_object_status.

(** One server RPC: digests of ONE instance name and digest function.  Sets
    over several instance names / digest functions through the client (one
    RPC per partition, union): [find_missing_exact_multi] and
    [client_server_find_missing_multi] in Props/C14F.v. *)
Theorem find_missing_exact : forall missing ds ms,
  find_missing missing 0 ds = (0, ms) ->
  forall d, In d ms <-> In d ds /\ missing d = true.
Proof. exact BatchProofs.find_missing_exact. Qed.
Print Assumptions find_missing_exact.

(** ** Client and server back to back behave like the backend: for all data
    and all chunkings (chunk sizes; the encoder's and decoder's cuts) the
    server stores exactly the data, and a download returns the backend's
    bytes; the backend's errors reach the caller. *)
Theorem client_server_identity : forall hashf decompress compress chunk pieces d data,
  valid hashf d data = true -> (0 < chunk)%nat -> d_size d <= backend_max ->
  client_put hashf decompress compress false chunk pieces d data = mkWres 0 [] (d_size d) (Some data).
Proof. exact client_put_identity_stores. Qed.
Print Assumptions client_server_identity.

Theorem client_server_identity_zstd : forall hashf decompress compress,
  (forall x, decompress (compress x) = DOk x) ->
  forall chunk pieces d data,
  valid hashf d data = true -> d_size d <= backend_max ->
  client_put hashf decompress compress true chunk pieces d data
  = mkWres 0 [] (blen (compress data)) (Some data).
Proof. exact client_put_zstd_stores. Qed.
Print Assumptions client_server_identity_zstd.

Theorem client_server_read_identity : forall hashf decompress compress chunk sp cp get d content,
  get d = inl content -> valid hashf d content = true -> (0 < chunk)%nat -> d_size d <= backend_max ->
  client_get hashf decompress compress false chunk sp cp get d = inl content.
Proof. exact client_get_identity_returns. Qed.
Print Assumptions client_server_read_identity.

Theorem client_server_read_identity_zstd : forall hashf decompress compress,
  (forall x, decompress (compress x) = DOk x) ->
  forall chunk sp cp get d content,
  get d = inl content -> valid hashf d content = true -> d_size d <= backend_max ->
  client_get hashf decompress compress true chunk sp cp get d = inl content.
Proof. exact client_get_zstd_returns. Qed.
Print Assumptions client_server_read_identity_zstd.

Theorem client_server_error_passes : forall hashf decompress compress zstd chunk sp cp get d c,
  get d = inr c -> c <> 0 -> d_size d <= backend_max ->
  client_get hashf decompress compress zstd chunk sp cp get d = inr c.
Proof. exact client_get_error. Qed.
Print Assumptions client_server_error_passes.

Theorem client_server_invalid_upload : forall hashf decompress compress zstd chunk pieces d data x,
  0 <= d_size d -> valid hashf d data = false ->
  wr_code (client_put hashf decompress compress zstd chunk pieces d data) <> 0 /\
  (wr_stored (client_put hashf decompress compress zstd chunk pieces d data) = Some x -> valid hashf d x = true).
Proof. exact client_put_invalid. Qed.
Print Assumptions client_server_invalid_upload.

(** ** Non-vacuity: concrete instances (hash = sum of the bytes; codec = tag byte). *)
Definition ex_hash (x : bytes) : Z := fold_left Z.add x 0.
Definition ex_compress (x : bytes) : bytes := 40 :: x.
Definition ex_decompress (c : bytes) : dres := match c with 40 :: x => DOk x | [] => DOk [] | _ => DBad end.

Example upload_three_messages :
  write ex_hash ex_decompress 0 (RIdentity (mkD 15 5))
        [mkW 0 [1; 2] false; mkW 2 [] false; mkW 2 [3; 4; 5] true] TEof
  = mkWres 0 [] 5 (Some [1; 2; 3; 4; 5]).
Proof. vm_compute. reflexivity. Qed.

Example upload_gap_rejected :
  write ex_hash ex_decompress 0 (RIdentity (mkD 15 5))
        [mkW 0 [1; 2] false; mkW 3 [3; 4; 5] true] TEof = wfail cInvalidArgument.
Proof. vm_compute. reflexivity. Qed.

Example upload_zstd_first_offset_rejected :
  write ex_hash ex_decompress 0 (RZstd (mkD 15 5)) [mkW 7 [40; 1; 2; 3; 4; 5] true] TEof = wfail cInvalidArgument
  /\ write ex_hash ex_decompress 0 (RZstd (mkD 15 5)) [mkW 0 [40; 1; 2] false; mkW 3 [3; 4; 5] true] TEof
     = mkWres 0 [] 6 (Some [1; 2; 3; 4; 5]).
Proof. vm_compute. split; reflexivity. Qed.

Example read_from_offset :
  read ex_compress (RIdentity (mkD 15 5)) 0 (fun _ => inl [1; 2; 3; 4; 5]) 2 2%nat [] None = (0, [[3; 4]; [5]])
  /\ read ex_compress (RZstd (mkD 15 5)) 0 (fun _ => inl [1; 2; 3; 4; 5]) 2 2%nat [1%nat] None = (0, [[40; 3]; [4; 5]])
  /\ read ex_compress (RZstd (mkD 15 5)) 0 (fun _ => inl [1; 2; 3; 4; 5]) 6 2%nat [] None = (cInvalidArgument, []).
Proof. vm_compute. repeat split; reflexivity. Qed.

Example client_round_trip :
  client_put ex_hash ex_decompress ex_compress true 2%nat [1%nat] (mkD 15 5) [1; 2; 3; 4; 5]
  = mkWres 0 [] 6 (Some [1; 2; 3; 4; 5])
  /\ client_get ex_hash ex_decompress ex_compress true 2%nat [0%nat] [1%nat]
       (fun _ => inl [1; 2; 3; 4; 5]) (mkD 15 5) = inl [1; 2; 3; 4; 5].
Proof. vm_compute. split; reflexivity. Qed.

(** ** The monitor used on implementation traces never fires on the model.

    [mon14 inp (orc res)] is the property as a decidable check on an
    implementation result [res]; [agree14 inp (run14 inp orc) res] is the judge's
    test that [res] is an outcome the model allows (it accepts a SET of results:
    the alternative failure codes of a compressed upload, FindMissing answers up
    to order, any prefix of a compressed read cut short by a failing Send).
    For every input, every oracle and every result the judge accepts, all eleven
    clauses (numbered 1-6 and 8-12) are silent.  [inp_wf inp] (Run/R14Proofs.v) is
      - for an identity ByteStream.Read (kind 1, compressor 0): chunk size >= 1
        and an injected Send failure has a non-zero code;
      - for a client<->server case (kind 5): chunk size >= 1, the blob of a Put
        and the size of a Get at most [backend_max] (1 MiB, the harness's
        ToByteSlice limit), FindMissing sizes >= 0.
    No condition for Write, BatchUpdateBlobs, BatchReadBlobs, FindMissingBlobs,
    compressed reads and the ActionCache. *)
From BBS Require Import Common.Sx Run.R14 Run.R14Proofs.

Theorem monitor_silent_on_agreeing_observation : forall inp obs,
  inp_wf inp ->
  agree14 inp (run14 inp (sx_nth obs 0)) (sx_nth obs 1) = true ->
  mon14 inp obs = [].
Proof. exact mon14_silent_on_agreeing. Qed.
Print Assumptions monitor_silent_on_agreeing_observation.

(** ... in particular on the model's own (primary) outcome, which the judge accepts. *)
Theorem model_outcome_is_accepted : forall inp orc,
  agree14 inp (run14 inp orc) (model_res inp orc) = true.
Proof. exact agree14_model_res. Qed.
Print Assumptions model_outcome_is_accepted.

Theorem monitor_silent_on_model : forall inp orc,
  inp_wf inp -> mon14 inp (L [orc; model_res inp orc]) = [].
Proof. exact mon14_silent_on_model. Qed.
Print Assumptions monitor_silent_on_model.

(** Each hypothesis is needed: chunk 0 / Send failure "code 0" on an identity
    read (clause 6); client<->server with chunk 0, a Get of an absent digest of
    1 MiB + 1 bytes, a FindMissing with a negative size, a Put of a 1 MiB + 1
    byte blob (clause 11).  harness/c14.go rejects all of these except the
    oversized Get (sizes are only bounded from below). *)
Example monitor_domain_boundary :
  (let inp := L [A 1; L [L [A 7]]; L [A 0; A 0; A 1]; A 0; A 0; A 0; A 0; L []] in
   mon14 inp (L [L []; model_res inp (L [])]) = [6])
  /\ (let inp := L [A 1; L [L [A 7]]; L [A 0; A 0; A 1]; A 0; A 0; A 0; A 1; L [A 0; A 0]] in
      mon14 inp (L [L []; model_res inp (L [])]) = [6])
  /\ (let inp := L [A 5; L [L [A 7]]; A 0; A 0; L [L [A 0; A 0; A 1]]] in
      mon14 inp (L [L []; model_res inp (L [])]) = [11])
  /\ (let inp := L [A 5; L [L [A 7]]; A 0; A 1; L [L [A 1; A 0; A 1048577]]] in
      mon14 inp (L [L []; model_res inp (L [])]) = [11])
  /\ (let inp := L [A 5; L [L [A 7]]; A 0; A 1; L [L [A 2; L [L [A 0; A (-1)]]]]] in
      mon14 inp (L [L []; model_res inp (L [])]) = [11])
  /\ (let inp := L [A 5; L [L (map A (repeat 0 (Z.to_nat 1048577)))]; A 0; A 1048577; L [L [A 0; A 0; A 1048577]]] in
      mon14 inp (L [L []; model_res inp (L [])]) = [11]).
Proof.
  exact (conj read_chunk_needed (conj read_sendfail_code_needed (conj cs_chunk_needed
          (conj cs_get_size_needed (conj cs_fm_size_needed cs_put_size_needed))))).
Qed.

(** Non-vacuity: a client<->server case (zstd, chunk 2: Put, Get, FindMissing) in the domain. *)
Example monitor_silent_example :
  let inp := L [A 5; L [L [A 7; A 8; A 9]]; A 1; A 2;
                L [L [A 0; A 0; A 3]; L [A 1; A 0; A 3]; L [A 2; L [L [A 0; A 3]; L [A 0; A 4]]]]] in
  inp_wf inp
  /\ model_res inp (L []) = L [L [L [A 0; L []]; L [A 0; L [A 7; A 8; A 9]]; L [A 0; L [L [A 0; A 4]]]];
                               L [L [A 0; A 3; L [A 7; A 8; A 9]]]].
Proof. exact cs_ok_example. Qed.
