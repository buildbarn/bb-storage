(** C20X — chains of digest set operations on DERIVED sets (sub-check of C20).
    Proofs are in Run/R20XProofs.v, except two short ones proved here.

    Property sentence (C20): "Digest sets built, united, intersected, subtracted,
    partitioned and filtered by this package equal the corresponding mathematical
    sets, sorted and duplicate-free."  C20's own theorems speak about one operation
    on given sorted sets; here the operations are CHAINED: a program (Run/R20X.v) runs
    over an environment of sets that starts with the built sets and to which every
    instruction appends its outputs, so later instructions take partitions,
    differences, intersections, unions and filtered sets of earlier ones as arguments.

    Vocabulary (Run/R20XProofs.v):
      [in_univ ds s]            s is strictly increasing in Go's string order and every
                                member is the packed form of a digest of the universe [ds];
      [instr_spec env ins outs] the outputs are exactly the mathematical
                                difference / intersection / union / partition / filter
                                of the instruction's input sets [env_get env i];
      [trace_spec ds env p tr]  every instruction of [p] succeeded (no panic, no error)
                                with outputs satisfying [instr_spec] in the environment it
                                ran in, all of them again [in_univ ds]. *)
From Coq Require Import List NArith ZArith Bool Lia.
From BBS Require Import Common.Sx Generated.Consts Digest.DigestModel Digest.SetModel
     Digest.DigestProofs Digest.SetProofs Run.R20 Run.R20Proofs Run.R20X Run.R20XProofs.
Import ListNotations.
Open Scope Z_scope.

(** ** One instruction, any environment of sets of the universe *)
Theorem instruction_exact : forall ds env ins,
  Forall valid_digest ds -> Forall (in_univ ds) env ->
  exists outs, exec_instr env ins = Ok outs /\ instr_spec env ins outs /\ Forall (in_univ ds) outs.
Proof. exact exec_instr_spec. Qed.
Print Assumptions instruction_exact.

(** ** Every program: any length, any indices (an index beyond the environment is the
    empty set), any universe of valid digests, any initial sets of that universe *)
Theorem set_program_exact : forall ds, Forall valid_digest ds ->
  forall p env, Forall (in_univ ds) env -> trace_spec ds env p (exec_prog env p).
Proof. exact exec_prog_spec. Qed.
Print Assumptions set_program_exact.

(** every set of the final environment is sorted, duplicate-free and drawn from the universe *)
Theorem set_program_sets_sorted_nodup : forall ds, Forall valid_digest ds ->
  forall p env, Forall (in_univ ds) env ->
  Forall (fun s => sorted s /\ NoDup s /\ forall x, In x s -> In x (map pack ds)) (final_env env p).
Proof.
  intros ds V p env He. pose proof (final_env_in_univ ds V p env He) as H.
  apply Forall_forall. intros s Hs. rewrite Forall_forall in H. destruct (H s Hs) as [S M].
  split; [exact S|]. split; [apply sorted_NoDup, S|exact M].
Qed.
Print Assumptions set_program_sets_sorted_nodup.

(** the sets SetBuilder builds from indices into the universe are such initial sets *)
Theorem built_sets_in_universe : forall ds sets,
  Forall (fun s => Forall (fun i => (i < length ds)%nat) (sx_nats s)) (sx_list sets) ->
  Forall (in_univ ds) (built_of (map pack ds) sets).
Proof. exact built_in_univ. Qed.
Print Assumptions built_sets_in_universe.

(** what [run20X] hands to the judge is this semantics *)
Theorem run20X_is_exec_prog : forall inp ds,
  Forall valid_digest ds -> sx_list (sx_nth inp 0) = map enc_entry ds ->
  run20X inp = L [enc_list (map pack ds); enc_sets (built_of (map pack ds) (sx_nth inp 1));
                  L (map (enc_out enc_sets)
                         (exec_prog (built_of (map pack ds) (sx_nth inp 1)) (map dec_instr (sx_list (sx_nth inp 2)))))].
Proof. exact run20X_eq. Qed.
Print Assumptions run20X_is_exec_prog.

(** ** The monitor used on implementation observations never fires on the model:
    for every input whose universe is a list of canonically written valid digests and
    whose initial sets are indices into it ([inp_wf20X], the same domain as kind 6 of
    C20) and EVERY program. *)
Theorem mon20X_silent_on_model : forall inp, inp_wf20X inp -> mon20X inp (run20X inp) = [].
Proof. exact mon20X_silent_on_model_proof. Qed.
Print Assumptions mon20X_silent_on_model.

(** ** Non-vacuity.  Universe: the same md5 hash under instance names "a" (5 bytes) and
    "b" (empty blob); sets {0,1} and {1}; program: partition set 0, subtract / intersect
    its first partition with the origin in both orders, filter, unite. *)
Definition ex_prog_inp : sx :=
  L [L [ex_entry (L [A 97]) 3 5; ex_entry (L [A 98]) 3 0]; L [L [A 0; A 1]; L [A 1]];
     L [L [A 2; A 0]; L [A 0; A 0; A 2]; L [A 0; A 2; A 0]; L [A 3; A 0]; L [A 1; A 2; A 3; A 0; A 7]]].

Example ex_prog_wf : inp_wf20X ex_prog_inp.
Proof.
  destruct (proj2 ex_sets_ok_wf eq_refl) as (ds & V & Hent & Hs).
  exists ds. split; [exact V|]. split; [exact Hent|exact Hs].
Qed.

Example ex_prog_silent : mon20X ex_prog_inp (run20X ex_prog_inp) = [].
Proof. apply mon20X_silent_on_model, ex_prog_wf. Qed.

(** the program really runs: five steps, 2 + 3 + 3 + 1 + 1 sets appended *)
Example ex_prog_shape :
  map (fun st => length (sx_list (ok_val st))) (sx_list (sx_nth (run20X ex_prog_inp) 2)) = [2; 3; 3; 1; 1]%nat.
Proof. vm_compute. reflexivity. Qed.

(** an observation in which "origin minus its first partition" is answered as if both
    arguments were the same set (empty difference, the whole origin as intersection)
    is flagged by clause 12 *)
Definition ex_prog_bad_obs : sx :=
  let o := run20X ex_prog_inp in
  let steps := sx_nth o 2 in
  L [sx_nth o 0; sx_nth o 1;
     L [sx_nth steps 0; L [A 0; L [L []; sx_nth (sx_nth o 1) 0; L []]]; sx_nth steps 2; sx_nth steps 3; sx_nth steps 4]].
Example ex_prog_bad_flagged : mon20X ex_prog_inp ex_prog_bad_obs = [12].
Proof. vm_compute. reflexivity. Qed.
