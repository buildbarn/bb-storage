(** C04P — the persistent-block-list clause of C04: "the region of a released
    block is not handed out for new data ... before a state file that no longer
    lists the block has been durably written.  Conversely, once ... the state
    file has been rewritten the block is allocatable again".

    Statements only; proofs in Persist/ReleaseSafe.v, vocabulary in
    Persist/ReleaseSafeDefs.v, on top of the C07 model (Persist/PBL.v = the
    PersistentBlockList, Persist/Syncer.v = both PeriodicSyncer loops + PopFront
    / PushBack / uploads / clock / shutdown as one transition system).  The
    block list hands a region back to the BlockAllocator only by Block.Release()
    — recorded in [releasedLog]; a region can be handed out by NewBlock only
    after that (allocator theorems of C04: allocator_invariant,
    new_block_never_returns_an_owned_region).  All theorems quantify over every
    configuration, restored state, allocator answer, and EVERY schedule. *)
From Coq Require Import List NArith ZArith.
From BBS Require Import Persist.PBL Persist.PBLProofs Persist.Syncer Persist.SyncerProofs
  Persist.LiveActs Persist.LiveCover Persist.LiveRelease Persist.LiveFair
  Persist.ReleaseSafeDefs Persist.ReleaseSafe.
From BBS Require Import Common.Sx Run.R07 Run.R04P Run.R07MonTop Run.R04PMonAcc Run.R04PMonTraj Run.R04PMonOps Run.R04PMonTop.
Import ListNotations.
Local Open Scope nat_scope.

(** Release() calls happen in PopFront order: after any schedule, the blocks
    popped so far are exactly releasedLog ++ blocksToRelease, the block with
    absolute index i (the (i+1)-th PopFront) at position i. *)
Theorem released_in_pop_order : forall cfg alloc oldest init t0 tr s,
  let s0 := init_sys (fst (pbl_new alloc oldest init)) t0 in
  run cfg s0 tr = Some (Ok s) ->
  totalReleased (s_pbl s) = length (releasedLog (s_pbl s) ++ toRelease (s_pbl s))
  /\ (forall i l, nth_error (releasedLog (s_pbl s) ++ toRelease (s_pbl s)) i = Some l ->
        exists ip, pop_at (trace cfg s0 tr) ip i l)
  /\ (forall ip i l, pop_at (trace cfg s0 tr) ip i l ->
        nth_error (releasedLog (s_pbl s) ++ toRelease (s_pbl s)) i = Some l).
Proof. exact released_in_pop_order_reach. Qed.
Print Assumptions released_in_pop_order.

(** no_reuse_before_state_rewritten.  For every state reachable by any schedule
    and every Block.Release() call made so far (entry i of releasedLog, location
    l): the executed history contains, in this order, the PopFront removing that
    block, the START of a WritePersistentState call whose state does not list
    the block, and the successful COMPLETION of that same call. *)
Theorem no_reuse_before_state_rewritten : forall cfg alloc oldest init t0 tr s i l,
  let s0 := init_sys (fst (pbl_new alloc oldest init)) t0 in
  run cfg s0 tr = Some (Ok s) ->
  nth_error (releasedLog (s_pbl s)) i = Some l ->
  covered (trace cfg s0 tr) i l.
Proof. exact no_reuse_before_state_rewritten_reach. Qed.
Print Assumptions no_reuse_before_state_rewritten.

(** released_blocks_become_allocatable.  Conversely: if the history contains the
    PopFront of block i (step ip), later the start of a state write by loop t
    (step ig) and later that write's NotifyPersistentStateWritten (step iz — the
    step the loop takes when WritePersistentState has returned nil; no other
    state write started in between, so it is that write), then the block HAS
    been Release()d: entry i of releasedLog is its location, in every later
    state.  (A write that fails is retried and one that succeeds is followed by
    this step within a bounded fair stretch: C07 every_release_eventually_committed,
    restated per block below.) *)
Theorem released_blocks_become_allocatable : forall cfg alloc oldest init t0 tr s i l ip ig iz t t' st,
  let s0 := init_sys (fst (pbl_new alloc oldest init)) t0 in
  let h := trace cfg s0 tr in
  run cfg s0 tr = Some (Ok s) ->
  pop_at h ip i l -> ip < ig -> write_starts_at h ig t st -> ig < iz ->
  no_start_between h ig iz -> notified_at h iz t' ->
  t' = t /\ nth_error (releasedLog (s_pbl s)) i = Some l.
Proof. exact released_blocks_become_allocatable_reach. Qed.
Print Assumptions released_blocks_become_allocatable.

(** ... and it does happen: after ANY schedule, for every popped block there is
    a fair extension of at most 10 events (successful I/O, clock advance) after
    which the block has been Release()d — capacity is never permanently lost. *)
Theorem popped_block_eventually_allocatable : forall cfg alloc oldest init t0 tr s ip i l,
  let s0 := init_sys (fst (pbl_new alloc oldest init)) t0 in
  run cfg s0 tr = Some (Ok s) ->
  pop_at (trace cfg s0 tr) ip i l ->
  exists ext s', fair ext = true /\ length ext <= 10 /\ run cfg s ext = Some (Ok s')
    /\ nth_error (releasedLog (s_pbl s')) i = Some l.
Proof. exact popped_block_eventually_allocatable_reach. Qed.
Print Assumptions popped_block_eventually_allocatable.

(** Non-vacuity, on a schedule with two releases of which one write covers the first only: two blocks;
    PopFront; the release loop takes the state (blocksReleasing = 1) and its
    write is in flight; a second PopFront; the write completes: exactly the
    first block is released, the second stays queued; the next write of the
    release loop (which omits it) releases it. *)
Example straddling_pop_example :
  let cfg := mkConfig 10 3 in
  let s0 := init_sys (fst (pbl_new (fun _ _ => false) 0 nil)) 0 in
  let r := EStep TR (mkAns true 0) in
  let pre := [r; EPushBack (Some (0, 100)%Z); EPushBack (Some (100, 100)%Z); EPopFront; r; r; r; EPopFront] in
  match run cfg s0 pre with
  | Some (Ok s1) =>
      s_r s1 = RW (WWriting (0%N, nil)) /\ toRelease (s_pbl s1) = [(0, 100)%Z; (100, 100)%Z]
      /\ releasing (s_pbl s1) = 1 /\
      match run cfg s1 [r; r] with
      | Some (Ok s2) =>
          releasedLog (s_pbl s2) = [(0, 100)%Z] /\ toRelease (s_pbl s2) = [(100, 100)%Z] /\
          match run cfg s2 [r; r; r; r; r; r] with
          | Some (Ok s3) => releasedLog (s_pbl s3) = [(0, 100)%Z; (100, 100)%Z] /\ toRelease (s_pbl s3) = nil
          | _ => False
          end
      | _ => False
      end
  | _ => False
  end.
Proof. vm_compute. repeat split; reflexivity. Qed.

(** ---- THE MONITOR IS SILENT ON THE MODEL (Run/R04PMon*.v, on top
    of the C07 infrastructure Run/R07Mon*.v).  [mon04P] is the clause as a check
    on the implementation's log; [run04Ph inp hints] is the model's own log (PBL.v
    / Syncer.v + the allocator's accounting; the hints only pick the winner of a
    storeLock tie, [run04P inp = run04Ph inp []]).  For every input whose restored
    blocks live at pairwise distinct regions of the device ([dom04P], a decidable
    boolean) and EVERY hint list none of the four clauses fires: (1) a region is
    handed out only when the state durably written last lists no block there;
    (2) every Release() follows the completion of a state write that started
    after the block's PopFront and omits it, once; (3) at quiescent points where
    the last PopFront is covered, free + listed = all regions; (4) no panic.
    Method: the monitor against an abstract accounting of regions (listed /
    waiting for Release() / released / free, the write in flight with the number
    of waiting blocks it recorded), one lemma per log event; the model against the
    same accounting: one quiesce runs at most one NotifyPersistentStateWritten —
    releasing exactly the recorded prefix of blocksToRelease — followed by at
    most one GetPersistentState, whose state lists only blocks of the list. ---- *)
Theorem mon04P_silent_on_model : forall inp hints, dom04P inp = true -> mon04P inp (run04Ph inp hints) = nil.
Proof. exact mon04P_silent_on_model_h. Qed.
Print Assumptions mon04P_silent_on_model.

Theorem mon04P_silent_on_model_run04P : forall inp, dom04P inp = true -> mon04P inp (run04P inp) = nil.
Proof. intros inp. exact (mon04P_silent_on_model_h inp []). Qed.
Print Assumptions mon04P_silent_on_model_run04P.

(** Non-vacuity: 3 regions, one restored block at region 0; PopFront; the release
    loop's state write fails, is retried and completes: region 0 is released;
    three PushBacks hand out regions 100, 200 and the freed region 0; a fourth
    PushBack finds no region. *)
Definition mon04P_example_input : sx :=
  (L [L [A 4; A 7; A 0; A 0; L [L [L [A 0; A 100]; A 0; L []; A 1]]];
      L [L [A 3]; L [A 6; A 0]; L [A 7; A 7]; L [A 8; A 0]; L [A 6; A 1]; L [A 4; A 1]; L [A 4; A 1]; L [A 4; A 1]; L [A 4; A 1]];
      L [A 3]])%Z.

Example mon04P_domain_example :
  dom04P mon04P_example_input = true
  /\ is_marker (run04P mon04P_example_input) = false
  /\ length (sx_list (sx_nth (run04P mon04P_example_input) 1)) = 9
  /\ sx_nth (sx_nth (sx_nth (run04P mon04P_example_input) 1) 4) 2
     = L [L [A 5; A 2; A 1]; L [A 2; A 0; A 0; A 0]]%Z     (* write 2 completes, block 0 (region 0) is released *)
  /\ sx_nth (sx_nth (sx_nth (run04P mon04P_example_input) 1) 7) 2
     = L [L [A 1; A 3; A 0]]%Z.                            (* region 0 is handed out again, to block 3 *)
Proof. vm_compute. repeat split; reflexivity. Qed.
