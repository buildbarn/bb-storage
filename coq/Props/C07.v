(** C07 — Persistence never stalls: every upload and block release gets
    committed.  Statements only; proofs are in Persist/PBLProofs.v,
    Persist/SyncerProofs.v, Persist/Live*.v and Run/R07Mon*.v.  The transition system ([Syncer.step], [run]) has
    one event per atomic step: upload Put / finalizer, PopFront, PushBack, one
    lock-protected section or I/O completion (success/failure) or timer expiry
    or channel wait of either syncer loop, clock advance, context
    cancellation.  [reachable] = reachable by ANY schedule (event list) from
    the state produced by NewPersistentBlockList + NewPeriodicSyncer, for any
    persistent state, any allocator answers, any hash seeds. *)
From BBS Require Import Common.Sx Persist.PBL Persist.PBLProofs Persist.Syncer Persist.SyncerProofs Run.R07.
From BBS Require Import Persist.LiveActs Persist.LiveCover Persist.LiveRelease Persist.LiveFair Persist.LivePut
  Persist.LiveBound Persist.LiveEpoch Persist.LiveTop.
From BBS Require Import Run.R07MonBase Run.R07MonOps Run.R07MonC123 Run.R07MonCov1 Run.R07MonCov2 Run.R07MonOps2
  Run.R07MonCov3 Run.R07MonC5 Run.R07MonTop.
Local Open Scope nat_scope.

(** No schedule makes any step panic: in particular no wake-up channel is
    closed twice, no slice/index goes out of range. *)
Theorem no_panic : forall cfg alloc oldest init t0 tr,
  run cfg (init_sys (fst (pbl_new alloc oldest init)) t0) tr <> Some Panic.
Proof. exact no_panic_all_schedules. Qed.
Print Assumptions no_panic.

Theorem close_once : forall cfg alloc oldest init t0 s, reachable cfg alloc oldest init t0 s ->
  NoDup (ch_closed (heap (s_pbl s))).
Proof. exact close_once_reach. Qed.
Print Assumptions close_once.

(** The current put wake-up channel is closed exactly while some epoch is not
    yet synchronized (unabsorbed upload work). *)
Theorem wakeup_put : forall cfg alloc oldest init t0 s, reachable cfg alloc oldest init t0 s ->
  (synchronizedEpochs (s_pbl s) < length (epochSeeds (s_pbl s)) -> put_chan_closed (s_pbl s) = true) /\
  (synchronizedEpochs (s_pbl s) = length (epochSeeds (s_pbl s)) -> put_chan_closed (s_pbl s) = false).
Proof. exact wakeup_put_reach. Qed.
Print Assumptions wakeup_put.

(** The current release wake-up channel is closed exactly while some popped
    block has not been released. *)
Theorem wakeup_release : forall cfg alloc oldest init t0 s, reachable cfg alloc oldest init t0 s ->
  (toRelease (s_pbl s) <> [] -> release_chan_closed (s_pbl s) = true) /\
  (toRelease (s_pbl s) = [] -> release_chan_closed (s_pbl s) = false).
Proof. exact wakeup_release_reach. Qed.
Print Assumptions wakeup_release.

(** No missed notification: a channel a loop still holds is the current one
    or is already closed (stale channels are closed); hence a loop never
    waits on an open channel while work is pending. *)
Theorem stale_channels_closed_and_no_missed_wakeup :
  forall cfg alloc oldest init t0 s, reachable cfg alloc oldest init t0 s ->
  (forall c, s_r s = RWait c -> c <> get_release_wakeup (s_pbl s) -> is_closed (heap (s_pbl s)) c = true) /\
  (forall c, s_p s = PSelect c \/ s_p s = PIdle c -> c <> get_put_wakeup (s_pbl s) ->
             is_closed (heap (s_pbl s)) c = true) /\
  (forall c, s_r s = RWait c -> toRelease (s_pbl s) <> nil -> is_closed (heap (s_pbl s)) c = true) /\
  (forall c, s_p s = PSelect c \/ s_p s = PIdle c ->
             synchronizedEpochs (s_pbl s) < length (epochSeeds (s_pbl s)) ->
             is_closed (heap (s_pbl s)) c = true).
Proof. exact no_missed_wakeup_reach. Qed.
Print Assumptions stale_channels_closed_and_no_missed_wakeup.

(** No stall (release): whenever a popped block awaits release, the release
    loop can step on its own, or waits for its WritePersistentState call, or
    sleeps after a failed write, or waits for storeLock held by the put loop
    which is then runnable or in its own I/O call. *)
Theorem release_never_stalls : forall cfg alloc oldest init t0 s, reachable cfg alloc oldest init t0 s ->
  toRelease (s_pbl s) <> nil -> r_progress cfg s.
Proof. exact release_progress_reach. Qed.
Print Assumptions release_never_stalls.

(** No stall (put): whenever an epoch is not yet synchronized, the put loop
    can step on its own, waits for I/O, waits for a timer (interval or
    retry), has returned (shutdown), or waits for storeLock held by the
    release loop which is then runnable or in its I/O call. *)
Theorem put_never_stalls : forall cfg alloc oldest init t0 s, reachable cfg alloc oldest init t0 s ->
  synchronizedEpochs (s_pbl s) < length (epochSeeds (s_pbl s)) -> p_progress cfg s.
Proof. exact put_progress_reach. Qed.
Print Assumptions put_never_stalls.

(** The release loop contains no minimum-interval wait: its step function is
    the same for every minimumEpochInterval (with [release_never_stalls]: it
    is never blocked behind the put loop's interval timer either, because the
    put loop holds storeLock only inside writePersistentState). *)
Theorem release_not_delayed_by_interval : forall cfg cfg' a s,
  c_retry cfg = c_retry cfg' -> rstep cfg a s = rstep cfg' a s.
Proof. exact release_independent_of_interval. Qed.
Print Assumptions release_not_delayed_by_interval.

(** Consecutive sync schedule times (timer expiries recorded in
    lastSynchronizationTime, i.e. syncs started while running) are at least
    minimumEpochInterval apart; the first at least one interval after t0. *)
Theorem min_interval : forall cfg alloc oldest init t0 s, reachable cfg alloc oldest init t0 s ->
  gaps_ok (c_interval cfg) t0 (s_sched s).
Proof. exact min_interval_reach. Qed.
Print Assumptions min_interval.

(** Transient failures are retried: a failed state write releases storeLock,
    sleeps errorRetryInterval and re-enters writePersistentState; a failed
    data sync sleeps and calls the DataSyncer again (without a new
    NotifySyncStarting). *)
Theorem failed_state_write_is_retried : forall cfg s st t,
  s_r s = RW (WWriting st) ->
  exists s1, step cfg s (EStep TR (mkAns false t)) = Some (Ok s1)
    /\ s_r s1 = RW (WSleep (s_now s + c_retry cfg)) /\ s_store s1 = None /\ s_pbl s1 = s_pbl s
    /\ (forall s2 a, step cfg s1 (EStep TR a) = Some (Ok s2) -> s_r s2 = RW WAcquire).
Proof. exact failed_write_is_retried. Qed.
Print Assumptions failed_state_write_is_retried.

Theorem failed_data_sync_is_retried : forall cfg s keep final t,
  s_p s = PSyncing keep final ->
  exists s1, step cfg s (EStep TP (mkAns false t)) = Some (Ok s1)
    /\ s_p s1 = PSyncSleep keep final (s_now s + c_retry cfg) /\ s_pbl s1 = s_pbl s
    /\ (forall s2 a, step cfg s1 (EStep TP a) = Some (Ok s2) -> s_p s2 = PSyncing keep final).
Proof. exact failed_sync_is_retried. Qed.
Print Assumptions failed_data_sync_is_retried.

(** Ranking on the loops' program counters, per commit cycle (the `_partial`
    lemmas are per-cycle rank lemmas; the full statements —
    coverage, bounded liveness, commit bound — follow below): every own step of a loop that is not a failed I/O call
    strictly decreases the loop's rank, or it is the last step of
    writePersistentState — NotifyPersistentStateWritten, which releases exactly
    the blocks recorded by the preceding GetPersistentState; a failed I/O call
    raises the rank by at most 3 (and is retried, see above); steps of all other
    threads and of the environment leave the rank unchanged. *)
Theorem release_rank_partial : forall cfg alloc oldest init t0 s, reachable cfg alloc oldest init t0 s ->
  (forall a s', step cfg s (EStep TR a) = Some (Ok s') ->
     if r_fails s a then r_dist s' <= r_dist s + 3
     else r_dist s' < r_dist s \/
          (s_r s = RW WWritten /\ s_r s' = RStart /\
           releasedLog (s_pbl s') = releasedLog (s_pbl s) ++ firstn (releasing (s_pbl s)) (toRelease (s_pbl s))))
  /\ (forall e s', (forall a, e <> EStep TR a) -> step cfg s e = Some (Ok s') -> r_dist s' = r_dist s).
Proof. exact release_rank_reach. Qed.
Print Assumptions release_rank_partial.

Theorem put_rank_partial : forall cfg alloc oldest init t0 s, reachable cfg alloc oldest init t0 s ->
  (forall a s', step cfg s (EStep TP a) = Some (Ok s') ->
     if p_fails s a then p_dist s' <= p_dist s + 3
     else p_dist s' < p_dist s \/
          (exists k, s_p s = PW k WWritten /\ s_p s' = (if k then PStart else PExit) /\
           releasedLog (s_pbl s') = releasedLog (s_pbl s) ++ firstn (releasing (s_pbl s)) (toRelease (s_pbl s))))
  /\ (forall e s', (forall a, e <> EStep TP a) -> step cfg s e = Some (Ok s') -> p_dist s' = p_dist s).
Proof. exact put_rank_reach. Qed.
Print Assumptions put_rank_partial.

(** ---- COVERAGE (the link from "a commit cycle completes" to "THIS upload /
    THESE blocks are covered"; ghost bookkeeping = functions of the executed
    schedule, Persist/LiveActs.v: [act_of s e] = the PersistentBlockList call
    performed by step [e] in state [s]; [sync_starts] = NotifySyncStarting
    followed by a DataSyncer call; [sync_completes] = NotifySyncCompleted;
    [AGetState t] = loop t calls GetPersistentState and starts
    WritePersistentState; [AWritten t] = NotifyPersistentStateWritten). ---- *)

(** upload_covered_by_next_commit.  The whole schedule is
      ... (reaching s1) ; finalizer k returns FinOk off [step i] ; trA ;
      e2 = a step starting a data sync ; trB ; e3 = a step completing a data
      sync ; trC ; e4 = a step of loop t starting a state write
    with trA, trB, trC ARBITRARY schedules.  Then the object's block has been
    released by PopFront in the meantime, or the state passed to the store
    covers the object [o] (= obj_of: absolute block index, block location, end
    offset off+size, its epoch = the last epoch when the finalizer returned,
    that epoch's seed): the state's entry number (abs - totalBlocksReleased) is
    the object's block with write_offset >= off+size, and the object's epoch is
    among the state's epochs — the seed at position (epoch index - d) of the
    concatenated epoch_hash_seeds is the epoch's seed, [d] = number of epochs
    PopFront removed in between ([popsum]).  This holds for EVERY state write
    started after the sync completion, in particular for the first, by either
    loop. *)
Theorem upload_covered_by_next_commit : forall cfg alloc oldest init t0
    s1 k blk seed s1' abs size off p' trA s2 e2 s2' trB s3 e3 s3' trC s4 e4 s4' t,
  reachable cfg alloc oldest init t0 s1 ->
  step cfg s1 (EFinalize k blk seed) = Some (Ok s1') ->
  nth_error (s_uploads s1) k = Some (Some (PutAt abs, size)) ->
  put_finalize (PutAt abs) blk size seed (s_pbl s1) = Ok (p', FinOk off) ->
  run cfg s1' trA = Some (Ok s2) -> step cfg s2 e2 = Some (Ok s2') -> sync_starts s2 e2 = true ->
  run cfg s2' trB = Some (Ok s3) -> step cfg s3 e3 = Some (Ok s3') -> sync_completes s3 e3 = true ->
  run cfg s3' trC = Some (Ok s4) -> step cfg s4 e4 = Some (Ok s4') -> act_of s4 e4 = AGetState t ->
  let o := obj_of (s_pbl s1) p' abs (off + size) in
  let d := popsum cfg s1' trA + popsum cfg s2' trB + popsum cfg s3' trC in
  abs < totalReleased (s_pbl s4) \/
  exists st, written_state s4' t = Some st /\ covers st (abs - totalReleased (s_pbl s4)) o (o_epoch o - d).
Proof. exact upload_covered_reach. Qed.
Print Assumptions upload_covered_by_next_commit.

(** ... and the epoch ID: the reference (EpochID, BlocksFromLast) and hash seed
    that BlockIndexToBlockReference computes on the block list right after the
    finalizer (what the key-location map stores for the object) has EpochID =
    the written state's oldest_epoch_id + (epoch index - d) in uint32
    arithmetic — the position at which [covers] finds the same seed. *)
Theorem upload_covered_epoch_id : forall cfg alloc oldest init t0
    s1 k blk seed s1' abs size off p' trA s2 e2 s2' trB s3 e3 s3' trC s4 e4 s4' t,
  reachable cfg alloc oldest init t0 s1 ->
  step cfg s1 (EFinalize k blk seed) = Some (Ok s1') ->
  nth_error (s_uploads s1) k = Some (Some (PutAt abs, size)) ->
  put_finalize (PutAt abs) blk size seed (s_pbl s1) = Ok (p', FinOk off) ->
  run cfg s1' trA = Some (Ok s2) -> step cfg s2 e2 = Some (Ok s2') -> sync_starts s2 e2 = true ->
  run cfg s2' trB = Some (Ok s3) -> step cfg s3 e3 = Some (Ok s3') -> sync_completes s3 e3 = true ->
  run cfg s3' trC = Some (Ok s4) -> step cfg s4 e4 = Some (Ok s4') -> act_of s4 e4 = AGetState t ->
  let o := obj_of (s_pbl s1) p' abs (off + size) in
  let d := popsum cfg s1' trA + popsum cfg s2' trB + popsum cfg s3' trC in
  abs < totalReleased (s_pbl s4) \/
  exists st ref, written_state s4' t = Some st
    /\ index_to_ref (abs - totalReleased p') p' = Ok (ref, o_seed o)
    /\ d <= o_epoch o
    /\ fst ref = u32 (fst st + N.of_nat (o_epoch o - d)).
Proof. exact upload_covered_epoch_id_reach. Qed.
Print Assumptions upload_covered_epoch_id.

(** release_covered.  Schedule = ... (reaching s1) ; PopFront removing block fb
    [step i] ; trA = any schedule without a GetPersistentState ; e4 = loop t
    starts a state write (so: the FIRST state write started after i).  Then
    (a) fb is among the blocks recorded by that GetPersistentState
        (blocksToRelease at that moment);
    (b) fb is absent from the state written: every entry j of the state is
        block j of the current list, i.e. the block with absolute index
        totalBlocksReleased(s4) + j, and totalBlocksReleased(s4) exceeds fb's
        absolute index totalBlocksReleased(s1);
    (c) whenever, after any further schedule trB without another
        GetPersistentState, some loop t' runs NotifyPersistentStateWritten,
        then t' = t (it is that write; it did not fail) and exactly the
        recorded blocks are appended to releasedLog (Block.Release() calls). *)
Theorem release_covered : forall cfg alloc oldest init t0 s1 fb rest s1' trA s4 e4 s4' t,
  reachable cfg alloc oldest init t0 s1 ->
  blocks (s_pbl s1) = fb :: rest -> step cfg s1 EPopFront = Some (Ok s1') ->
  run cfg s1' trA = Some (Ok s4) -> no_getstate cfg s1' trA = true ->
  step cfg s4 e4 = Some (Ok s4') -> act_of s4 e4 = AGetState t ->
  In (b_loc fb) (toRelease (s_pbl s4))
  /\ totalReleased (s_pbl s1) < totalReleased (s_pbl s4)
  /\ (exists st, written_state s4' t = Some st /\
        forall j e, nth_error (snd st) j = Some e ->
          exists b, nth_error (blocks (s_pbl s4)) j = Some b /\ bs_loc e = b_loc b)
  /\ forall trB s5 e5 s5' t',
       run cfg s4' trB = Some (Ok s5) -> no_getstate cfg s4' trB = true ->
       step cfg s5 e5 = Some (Ok s5') -> act_of s5 e5 = AWritten t' ->
       t' = t /\ releasedLog (s_pbl s5') = releasedLog (s_pbl s5) ++ toRelease (s_pbl s4).
Proof. exact release_covered_reach. Qed.
Print Assumptions release_covered.

(** ---- LIVENESS in bounded form (no infinite traces): [fair ext] = the
    extension consists only of steps of the two syncer loops whose I/O call
    succeeds / whose select takes a ready case, and of clock advances (timer
    firings).  Weak fairness + finitely many injected failures on an infinite
    schedule imply that such a stretch eventually occurs; the theorems say
    that after it the commit has happened, and bound its length. ---- *)

(** every_release_eventually_committed: after ANY schedule prefix that leaves a
    popped block unreleased there is a fair extension of at most 10 events
    (<= 3 to let the holder of storeLock finish, one clock advance past a retry
    sleep, <= 6 of the release loop itself; no minimum-interval wait) after
    which all blocks awaiting release have been Release()d, in order. *)
Theorem every_release_eventually_committed : forall cfg alloc oldest init t0 s,
  reachable cfg alloc oldest init t0 s -> toRelease (s_pbl s) <> nil ->
  exists ext s', fair ext = true /\ length ext <= 10 /\ run cfg s ext = Some (Ok s')
    /\ toRelease (s_pbl s') = nil
    /\ releasedLog (s_pbl s') = (releasedLog (s_pbl s) ++ toRelease (s_pbl s))%list.
Proof. exact release_eventually_reach. Qed.
Print Assumptions every_release_eventually_committed.

(** every_upload_eventually_committed: take ANY schedule [trp] after the
    finalizer of an upload returned FinOk.  Then there is a fair extension of at
    most 35 events (the put loop's own steps, <= 3 steps of the release loop when
    it holds storeLock, clock advances past the interval timer / retry sleeps)
    after which the upload's block has been released by PopFront, or
    [scan ... = PhDone]: the executed schedule trp ++ ext contains, after the
    acknowledgement and in this order, the start of a data sync, its completion,
    a GetPersistentState of some loop and that same write's
    NotifyPersistentStateWritten — and a completed state write ([s_writes]) whose
    state covers the object.  The policy of the extension is explicit
    (LivePut.choose) and the bound is a rank (LivePut.rank <= 35) that every chunk
    of the policy lowers by its length (LivePut.progress). *)
Theorem every_upload_eventually_committed : forall cfg alloc oldest init t0
    s1 k blk seed s1' abs size off p' trp s,
  reachable cfg alloc oldest init t0 s1 ->
  step cfg s1 (EFinalize k blk seed) = Some (Ok s1') ->
  nth_error (s_uploads s1) k = Some (Some (PutAt abs, size)) ->
  put_finalize (PutAt abs) blk size seed (s_pbl s1) = Ok (p', FinOk off) ->
  run cfg s1' trp = Some (Ok s) ->
  exists ext s', fair ext = true /\ length ext <= 35 /\ run cfg s ext = Some (Ok s')
    /\ (abs < totalReleased (s_pbl s')
        \/ (scan cfg Ph0 s1' (trp ++ ext) = PhDone /\
            exists w bi ei, In w (s_writes s') /\
              covers (w_state w) bi (obj_of (s_pbl s1) p' abs (off + size)) ei)).
Proof. exact upload_eventually. Qed.
Print Assumptions every_upload_eventually_committed.

(** upload_commit_bound, in terms of the virtual clock values of the model: an
    upload is acknowledged at time t = s_now s1 with lastSynchronizationTime =
    s_last s1.  Take any schedule [tr] afterwards during which no data sync has
    started yet ([scan ... = Ph0]) and which is [urgent]: the clock never
    advances while the put loop has an enabled internal step (its lock-protected
    sections and channel selects take no virtual time; I/O calls, sleeps, the
    timer and waiting for storeLock may).  Then, unless the upload's block has
    been released, whenever the put loop waits on its interval timer the
    deadline is at most max(t, lastSynchronizationTime) + minimumEpochInterval,
    and lastSynchronizationTime is unchanged until that timer fires (no other
    sync is scheduled in between: ONE interval, not two).  The covering sync is
    started by the step after that timer (or immediately on shutdown); what
    else separates it from t is I/O of the cycle in flight and timer latency. *)
Theorem upload_commit_bound : forall cfg alloc oldest init t0 s1 k blk seed s1' abs size off p' tr s,
  reachable cfg alloc oldest init t0 s1 ->
  step cfg s1 (EFinalize k blk seed) = Some (Ok s1') ->
  nth_error (s_uploads s1) k = Some (Some (PutAt abs, size)) ->
  put_finalize (PutAt abs) blk size seed (s_pbl s1) = Ok (p', FinOk off) ->
  run cfg s1' tr = Some (Ok s) -> urgent cfg s1' tr = true ->
  scan cfg Ph0 s1' tr = Ph0 ->
  abs < totalReleased (s_pbl s) \/
  ((forall dl, s_p s = PTimer dl -> (dl <= N.max (s_now s1) (s_last s1) + c_interval cfg)%N)
   /\ (s_p s <> PNotify true -> s_last s = s_last s1)).
Proof. intros; eapply commit_bound; eauto. Qed.
Print Assumptions upload_commit_bound.

(** What is NOT stated: liveness over infinite traces (the bounded form above
    replaces it: weak fairness + finitely many injected failures give a fair
    stretch of the required length); a bound in wall-clock terms (the model's
    clock is virtual; I/O durations and timer latency are the environment's). *)

(** Non-vacuity of the coverage / liveness / bound theorems: empty store,
    PushBack, Put of 5 bytes, finalizer (epoch 0, seed 77) at time 0; the
    hypotheses of the theorems are met by the schedule of the example below and
    the state written is (0, [block (0,100) write_offset 5 seeds [77]]). *)
Example upload_covered_example :
  let cfg := mkConfig 10 3 in
  let s0 := init_sys (fst (pbl_new (fun _ _ => false) 0 nil)) 0 in
  let ok := EStep TP (mkAns true 0) in
  let r := EStep TR (mkAns true 0) in
  let pre := (r :: ok :: ok :: EPushBack (Some (0, 100)%Z) :: EPutStart 0 5 :: nil)%list in
  let trA := (ok :: ETick 10 :: EStep TP (mkAns false 10) :: nil)%list in
  match run cfg s0 pre with
  | Some (Ok s1) =>
    match step cfg s1 (EFinalize 0 (Some 0%Z) 77) with
    | Some (Ok s1') =>
      match run cfg s1' trA with
      | Some (Ok s2) =>
        match step cfg s2 ok with
        | Some (Ok s2') =>
          match run cfg s2' (ok :: nil)%list with
          | Some (Ok s3) =>
            match step cfg s3 ok with
            | Some (Ok s3') =>
              match run cfg s3' (ok :: nil)%list with
              | Some (Ok s4) =>
                match step cfg s4 ok with
                | Some (Ok s4') =>
                    nth_error (s_uploads s1) 0 = Some (Some (PutAt 0, 5%Z))
                    /\ (exists p', put_finalize (PutAt 0) (Some 0%Z) 5 77 (s_pbl s1) = Ok (p', FinOk 0))
                    /\ sync_starts s2 ok = true /\ sync_completes s3 ok = true
                    /\ act_of s4 ok = AGetState TP
                    /\ written_state s4' TP = Some (0%N, (mkBstate (0, 100)%Z 5%Z (77%N :: nil) :: nil)%list)
                    /\ obj_of (s_pbl s1) (s_pbl s1') 0 5 = mkObj 0 (0, 100)%Z 5 0 77
                    /\ urgent cfg s1' trA = true /\ scan cfg Ph0 s1' trA = Ph0
                    /\ s_p s2 = PNotify true /\ s_sched s2 = (10%N :: nil)%list
                    /\ scan cfg Ph0 s1' (trA ++ ok :: ok :: ok :: ok :: ok :: ok :: ok :: nil)%list = PhDone
                | _ => False
                end
              | _ => False
              end
            | _ => False
            end
          | _ => False
          end
        | _ => False
        end
      | _ => False
      end
    | _ => False
    end
  | _ => False
  end.
Proof. vm_compute. repeat split; try reflexivity. eexists. reflexivity. Qed.

(** The hypothesis "a data sync that STARTED after the acknowledgement" is
    needed: upload B (bytes 5..10, new epoch, seed 78) is acknowledged while the
    sync started for upload A is in flight; that sync completes afterwards and
    the state written next has write_offset 5 and only A's epoch. *)
Example sync_started_before_ack_does_not_cover :
  let cfg := mkConfig 10 3 in
  let s0 := init_sys (fst (pbl_new (fun _ _ => false) 0 nil)) 0 in
  let ok := EStep TP (mkAns true 0) in
  let pre := (ok :: ok :: EPushBack (Some (0, 100)%Z) :: EPutStart 0 5 :: EFinalize 0 (Some 0%Z) 77
              :: ok :: ETick 10 :: EStep TP (mkAns false 10) :: ok (* NotifySyncStarting; sync A in flight *)
              :: EPutStart 0 5 :: nil)%list in
  match run cfg s0 pre with
  | Some (Ok s1) =>
    match step cfg s1 (EFinalize 1 (Some 5%Z) 78) with
    | Some (Ok s1') =>
      match run cfg s1' (ok :: nil)%list with
      | Some (Ok s3) =>
        match step cfg s3 ok with
        | Some (Ok s3') =>
          match run cfg s3' (ok :: nil)%list with
          | Some (Ok s4) =>
            match step cfg s4 ok with
            | Some (Ok s4') =>
                (exists p', put_finalize (PutAt 0) (Some 5%Z) 5 78 (s_pbl s1) = Ok (p', FinOk 5))
                /\ sync_completes s3 ok = true /\ act_of s4 ok = AGetState TP
                /\ scan cfg Ph0 s1' (ok :: ok :: ok :: ok :: nil)%list = Ph0
                /\ written_state s4' TP = Some (0%N, (mkBstate (0, 100)%Z 5%Z (77%N :: nil) :: nil)%list)
                /\ obj_of (s_pbl s1) (s_pbl s1') 0 10 = mkObj 0 (0, 100)%Z 10 1 78
            | _ => False
            end
          | _ => False
          end
        | _ => False
        end
      | _ => False
      end
    | _ => False
    end
  | _ => False
  end.
Proof. vm_compute. repeat split; try reflexivity. eexists. reflexivity. Qed.

(** ... and of release_covered: PopFront, then the release loop's write. *)
Example release_covered_example :
  let cfg := mkConfig 10 3 in
  let s0 := init_sys (fst (pbl_new (fun _ _ => false) 0 nil)) 0 in
  let r := EStep TR (mkAns true 0) in
  let pre := (r :: EPushBack (Some (0, 100)%Z) :: EPushBack (Some (100, 100)%Z) :: nil)%list in
  match run cfg s0 pre with
  | Some (Ok s1) =>
    match step cfg s1 EPopFront with
    | Some (Ok s1') =>
      match run cfg s1' (r :: r :: nil)%list with
      | Some (Ok s4) =>
        match step cfg s4 r with
        | Some (Ok s4') =>
          match run cfg s4' (r :: nil)%list with
          | Some (Ok s5) =>
            match step cfg s5 r with
            | Some (Ok s5') =>
                no_getstate cfg s1' (r :: r :: nil)%list = true /\ act_of s4 r = AGetState TR
                /\ no_getstate cfg s4' (r :: nil)%list = true /\ act_of s5 r = AWritten TR
                /\ toRelease (s_pbl s4) = ((0, 100)%Z :: nil)%list
                /\ releasedLog (s_pbl s5') = ((0, 100)%Z :: nil)%list
                /\ written_state s4' TR = Some (0%N, nil)
            | _ => False
            end
          | _ => False
          end
        | _ => False
        end
      | _ => False
      end
    | _ => False
    end
  | _ => False
  end.
Proof. vm_compute. repeat split; reflexivity. Qed.

(** Non-vacuity: an empty store; PushBack, Put + finalizer (creates epoch 0,
    closes the put channel), interval elapses, timer fires, sync ok, state
    write ok: the write covers the epoch, the put channel is open again;
    then PopFront and the release loop's write releases the block. *)
Example commit_and_release_example :
  let cfg := mkConfig 10 3 in
  let s0 := init_sys (fst (pbl_new (fun _ _ => false) 0 nil)) 0 in
  let ok := EStep TP (mkAns true 0) in
  let r := EStep TR (mkAns true 0) in
  let tr := (r :: ok :: ok :: EPushBack (Some (0, 100)%Z) :: EPutStart 0 5 :: EFinalize 0 (Some 0%Z) 77
             :: ok (* PIdle: channel closed -> timer now+10 *)
             :: ETick 10 :: EStep TP (mkAns false 10) (* timer fires *)
             :: ok (* NotifySyncStarting *) :: ok (* sync ok *) :: ok (* NotifySyncCompleted *)
             :: ok (* storeLock *) :: ok (* GetPersistentState *) :: ok (* write ok *) :: ok (* written *)
             :: EPopFront :: r :: r :: r :: r :: r :: nil)%list in
  match run cfg s0 tr with
  | Some (Ok s) =>
      s_sched s = (10%N :: nil)%list
      /\ map (fun w => (w_by w, w_state w)) (s_writes s)
         = ((TR, (1%N, nil)) :: (TP, (0%N, (mkBstate (0, 100)%Z 5%Z (77%N :: nil) :: nil))) :: nil)%list
      /\ releasedLog (s_pbl s) = ((0, 100)%Z :: nil)%list
      /\ put_chan_closed (s_pbl s) = false /\ release_chan_closed (s_pbl s) = false
      /\ length (ch_closed (heap (s_pbl s))) = 2
  | _ => False
  end.
Proof. vm_compute. repeat split; reflexivity. Qed.

(** ---- THE MONITOR IS SILENT ON THE MODEL (Run/R07Mon*.v).
    [mon07] is the property as a check on implementation observations;
    [run07h inp hints] is the model's own observation (the hints only pick the
    winner of a storeLock tie; [run07 inp = run07h inp []]; the judge uses the
    hints of the observation).  For every input of the domain [dom07] — the
    restored blocks have pairwise distinct offsets below 10000 (the fake
    allocator hands out 10000 + 100 n) and restored epochs + number of
    operations < 2^32 (epoch IDs are uint32) — and EVERY hint list, no clause
    fires:
      1  a popped block awaits release while the release loop waits — the
         executor always reaches a QUIESCENT state (rank <= 12 < fuel 64) and
         there the release loop is runnable, writing, sleeping, or behind the
         put loop's state write;
      2  schedule times closer than the minimum interval, where a non-retry
         DataSyncer call that no interval-timer expiry preceded counts as a
         schedule time — in the model such a call is entered from [PNotify true]
         only, which only the expiry of the interval timer in the same operation
         creates;
      3  the panic / hang marker — no operation of the executor panics;
      4/6 a completed state write does not cover an upload acknowledged before
         the start of the last successful sync / lists the epoch of a later one
         — per acknowledged upload a ghost object of Persist/LiveCover.v whose
         level (written / sync started / sync completed) is the one the monitor
         derives from its own bookkeeping, with the negative counterpart (below
         level 2 the epoch is not among the synchronized ones);
      5  the put loop waits (idle / returned / behind a release loop that is not
         writing) while an acknowledged upload is not covered by the last
         completed state write.
    Hence a monitor hit on an implementation observation that agrees with the
    model is impossible: a hit is always a disagreement with the model.  Without
    the domain hypothesis clauses 1, 2 and 3 are silent for ALL inputs. ---- *)
Theorem mon07_silent_on_model : forall inp hints, dom07 inp = true -> mon07 inp (run07h inp hints) = nil.
Proof. exact mon07_silent_on_model_h. Qed.
Print Assumptions mon07_silent_on_model.

Theorem mon07_silent_on_model_run07 : forall inp, dom07 inp = true -> mon07 inp (run07 inp) = nil.
Proof. exact mon07_silent_on_model_. Qed.
Print Assumptions mon07_silent_on_model_run07.

Theorem mon07_clauses_123_silent_for_all_inputs : forall inp hints k,
  List.In k (mon07 inp (run07h inp hints)) -> (k = 4 \/ k = 5 \/ k = 6)%Z.
Proof. exact mon07_clauses_123_silent. Qed.
Print Assumptions mon07_clauses_123_silent_for_all_inputs.

(** Non-vacuity of [dom07]: a restored block (epoch ID 2^32-2, so that the new
    epoch's ID wraps), PushBack, Put + finalizer, the interval elapses, the timer
    fires, the sync fails and is retried, state write, PopFront, a failed and a
    retried state write of the release loop, cancellation, final sync, final
    write, ProcessBlockPut returns false: 19 operations, 4 state writes. *)
Definition mon07_example_input : sx :=
  (L [L [A 10; A 3; A 0; A 4294967294; L [L [L [A 0; A 100]; A 7; L [A 1]; A 1]]];
      L [L [A 4; A 1]; L [A 1; A 0; A 5; A 0; A 0]; L [A 2; A 0]; L [A 7; A 10]; L [A 8; A 1];
         L [A 5; A 0]; L [A 7; A 3]; L [A 8; A 1]; L [A 5; A 1]; L [A 6; A 1]; L [A 3]; L [A 6; A 0]; L [A 7; A 3];
         L [A 8; A 0]; L [A 6; A 1]; L [A 9]; L [A 5; A 1]; L [A 5; A 1]; L [A 6; A 1]]])%Z.

Example mon07_domain_example :
  dom07 mon07_example_input = true
  /\ is_marker (run07 mon07_example_input) = false
  /\ length (sx_list (run07 mon07_example_input)) = 19
  /\ sx_nth (sx_nth (run07 mon07_example_input) 18) 2 = L [A 4%Z]     (* the put loop has returned *)
  /\ sx_nth (sx_nth (run07 mon07_example_input) 18) 5 = L [A 0%Z].    (* the popped block has been released *)
Proof. vm_compute. repeat split; reflexivity. Qed.
