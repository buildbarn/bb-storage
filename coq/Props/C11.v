(** C11 — Mirrored storage: writes reach both replicas, reads repair,
    existence checks repair, errors are not masked.
    Proofs are in Compose/Mirrored{Proofs,FM,Hist}.v, Compose/MonSilentOp.v
    and Run/R11Proofs.v.

    Quantification: every statement holds for ALL replica contents [st]
    (hence all placements of every object and all states reachable by any
    history), ALL fault oracles [o] (an arbitrary outcome for every replica
    call) unless it says [no_faults o], and both parities of the round
    counter.  The [history_*] theorems quantify over operation lists of any
    length with a fresh oracle per operation. *)
From BBS Require Import Common.Sx Common.ListX Compose.Mirrored
  Compose.MirroredProofs Compose.MirroredFM Compose.MirroredHist
  Compose.MonSilentOp Run.R11 Run.R11Proofs.
Local Open Scope nat_scope.

(** ** Writes reach both replicas *)
Theorem put_ok_both : forall o st d x st' r,
  m_put o st d x = (st', r) -> errs r = [] ->
  lookup (sA st') d = Some x /\ lookup (sB st') d = Some x.
Proof. exact put_ok_both_proof. Qed.
Print Assumptions put_ok_both.

(** The two goroutines of Put touch disjoint replicas: either order gives the
    same state and the same per-branch errors. *)
Theorem put_branches_commute : forall o d x st,
  let '(s1, e1) := put_branch o RA d x st in
  let '(s2, e2) := put_branch o RB d x s1 in
  let '(t1, f1) := put_branch o RB d x st in
  let '(t2, f2) := put_branch o RA d x t1 in
  s2 = t2 /\ e1 = f2 /\ e2 = f1.
Proof. exact put_branches_commute_proof. Qed.
Print Assumptions put_branches_commute.

(** ** Reads *)
(** Absent faults a read succeeds iff at least one replica holds the object;
    it returns the first-consulted replica's content if it has one, else the
    other's; otherwise the answer is a plain NOT_FOUND. *)
Theorem get_iff_either : forall o st d st' r,
  no_faults o -> m_get o st d = (st', r) ->
  (errs r = [] <-> (lookup (sA st) d <> None \/ lookup (sB st) d <> None))
  /\ (errs r <> [] -> errs r = [mkerr NF TNone (other (firstR st))] /\ okv r = [])
  /\ (forall x, lookup (sto st (firstR st)) d = Some x -> okv r = [x])
  /\ (forall x, lookup (sto st (firstR st)) d = None ->
                lookup (sto st (other (firstR st))) d = Some x -> okv r = [x]).
Proof. exact get_iff_either_proof. Qed.
Print Assumptions get_iff_either.

Theorem get_repairs_first_consulted : forall o st d x st' r,
  no_faults o -> m_get o st d = (st', r) ->
  lookup (sto st (firstR st)) d = None ->
  lookup (sto st (other (firstR st))) d = Some x ->
  errs r = [] /\ okv r = [x]
  /\ lookup (sto st' (firstR st)) d = Some x
  /\ sto st' (other (firstR st)) = sto st (other (firstR st))
  /\ (forall d', d' <> d -> lookup (sto st' (firstR st)) d' = lookup (sto st (firstR st)) d').
Proof. exact get_repairs_first_consulted_proof. Qed.
Print Assumptions get_repairs_first_consulted.

(** Under ANY faults: a read that succeeds returns a content one of the
    replicas held, and afterwards the first-consulted replica holds it. *)
Theorem get_ok_sound : forall o st d st' r,
  m_get o st d = (st', r) -> errs r = [] ->
  exists x, okv r = [x]
    /\ (lookup (sto st (firstR st)) d = Some x
        \/ (lookup (sto st (other (firstR st))) d = Some x
            /\ rget o (firstR st) (sto st (firstR st)) d = BErr NF (firstR st)))
    /\ lookup (sto st' (firstR st)) d = Some x.
Proof. exact get_ok_sound_proof. Qed.
Print Assumptions get_ok_sound.

(** ** Existence checks *)
Theorem fm_missing_iff_both_missing : forall o st ds st' r,
  m_fm o st ds = (st', r) -> errs r = [] ->
  forall d, In d (okv r) <-> (In d ds /\ lookup (sA st) d = None /\ lookup (sB st) d = None).
Proof. exact fm_missing_iff_both_missing_proof. Qed.
Print Assumptions fm_missing_iff_both_missing.

Theorem fm_ok_repairs_symmetric_difference : forall o st ds st' r,
  m_fm o st ds = (st', r) -> errs r = [] ->
  forall d, In d ds ->
    (forall x, lookup (sA st) d = Some x -> lookup (sB st) d = None ->
               lookup (sB st') d = Some x /\ lookup (sA st') d = Some x)
    /\ (forall x, lookup (sB st) d = Some x -> lookup (sA st) d = None ->
               lookup (sA st') d = Some x /\ lookup (sB st') d = Some x)
    /\ (lookup (sA st') d = None <-> lookup (sB st') d = None).
Proof. exact fm_ok_repairs_symmetric_difference_proof. Qed.
Print Assumptions fm_ok_repairs_symmetric_difference.

(** Whatever fails (also half-way through a synchronisation): nothing is lost
    or altered, and an object appears in a replica only as the other
    replica's copy of a requested object it lacked. *)
Theorem fm_frame : forall o st ds st' r,
  m_fm o st ds = (st', r) ->
  rnd st' = rnd st /\
  forall y d, lookup (sto st' y) d = lookup (sto st y) d
    \/ (In d ds /\ lookup (sto st y) d = None /\ lookup (sto st (other y)) d <> None
        /\ lookup (sto st' y) d = lookup (sto st (other y)) d).
Proof. exact fm_frame_proof. Qed.
Print Assumptions fm_frame.

Theorem fm_no_faults_ok : forall o st ds st' r,
  no_faults o -> m_fm o st ds = (st', r) -> errs r = [].
Proof. exact fm_no_faults_ok_proof. Qed.
Print Assumptions fm_no_faults_ok.

(** digest.GetDifferenceAndIntersection on sorted sets. *)
Theorem diff_inter_is_difference_and_intersection : forall a b,
  strictly_sorted a -> strictly_sorted b ->
  diff_inter a b = (filter (fun d => negb (mem d b)) a,
                    filter (fun d => mem d b) a,
                    filter (fun d => negb (mem d a)) b).
Proof. exact diff_inter_spec. Qed.
Print Assumptions diff_inter_is_difference_and_intersection.

(** ** Errors are not masked
    For every operation, replica contents and oracle:
    (i) a successful answer means no call the operation made was answered
        with a failure (NOT_FOUND to a lookup is not a failure);
    (ii) NOT_FOUND is reported only by a read to which BOTH replicas
        answered NOT_FOUND (oracles where uploads/existence checks never fail
        with the code NOT_FOUND);
    (iii) every other error names a replica. *)
Theorem errors_not_masked : forall o st p st' r,
  step o st p = (st', r) ->
  (errs r = [] -> forall c, In c (calls r) -> benign o c)
  /\ (wf_oracle o -> forall e, In e (errs r) -> ecode e = NF ->
        exists d, p = OGet d /\ both_answer_nf o st d)
  /\ (forall e, In e (errs r) -> ecode e <> NF -> etag_of e <> TNone).
Proof. exact errors_not_masked_proof. Qed.
Print Assumptions errors_not_masked.

(** The same in the direction "a failure surfaces".  The single exception is
    spelled out: the repair upload issued for an object that neither replica
    returned receives an error buffer and its outcome is discarded by the
    code; the read then (correctly) still reports NOT_FOUND. *)
Theorem failure_surfaces : forall o st p st' r c,
  step o st p = (st', r) -> wf_oracle o ->
  In c (calls r) -> ocall o c <> 0%Z -> ocall o c <> NF ->
  errs r <> []
  /\ ((forall e, In e (errs r) -> ecode e <> NF /\ etag_of e <> TNone)
      \/ (exists d, p = OGet d /\ both_answer_nf o st d /\ snd (fst c) = KPut)).
Proof. exact failure_surfaces_proof. Qed.
Print Assumptions failure_surfaces.

(** Exact attribution for reads (c a failure other than NOT_FOUND).  Note the
    third: a failing repair upload on the FIRST-consulted replica is reported
    under the name of the SECOND backend (the replication source), with the
    code kept and nothing stored. *)
Theorem get_first_failure_named : forall o st d st' r c,
  m_get o st d = (st', r) -> c <> 0%Z -> c <> NF -> o (firstR st) KGet d = c ->
  errs r = [mkerr c (TBackend (firstR st)) (firstR st)].
Proof. exact get_first_failure. Qed.
Print Assumptions get_first_failure_named.

Theorem get_second_failure_named : forall o st d st' r c,
  m_get o st d = (st', r) -> c <> 0%Z -> c <> NF ->
  rget o (firstR st) (sto st (firstR st)) d = BErr NF (firstR st) ->
  o (other (firstR st)) KGet d = c ->
  errs r = [mkerr c (TBackend (other (firstR st))) (other (firstR st))].
Proof. exact get_second_failure. Qed.
Print Assumptions get_second_failure_named.

Theorem get_repair_failure_named : forall o st d st' r c x,
  m_get o st d = (st', r) -> c <> 0%Z -> c <> NF ->
  rget o (firstR st) (sto st (firstR st)) d = BErr NF (firstR st) ->
  rget o (other (firstR st)) (sto st (other (firstR st))) d = BData x ->
  o (firstR st) KPut d = c ->
  errs r = [mkerr c (TBackend (other (firstR st))) (firstR st)]
  /\ sA st' = sA st /\ sB st' = sB st.
Proof. exact get_repair_failure. Qed.
Print Assumptions get_repair_failure_named.

(** ** Histories *)
Theorem history_presence : forall h st st' rs y d,
  run st h = (st', rs) -> lookup (sto st y) d <> None -> lookup (sto st' y) d <> None.
Proof. exact history_presence_proof. Qed.
Print Assumptions history_presence.

Theorem history_provenance : forall h st st' rs y d v,
  run st h = (st', rs) -> lookup (sto st' y) d = Some v ->
  lookup (sA st) d = Some v \/ lookup (sB st) d = Some v \/ exists o, In (o, OPut d v) h.
Proof. exact history_provenance_proof. Qed.
Print Assumptions history_provenance.

Theorem history_put_persists : forall h1 o d x h2 st st1 rs1 st2 r st3 rs3,
  run st h1 = (st1, rs1) -> step o st1 (OPut d x) = (st2, r) -> errs r = [] ->
  run st2 h2 = (st3, rs3) ->
  run st (h1 ++ (o, OPut d x) :: h2) = (st3, rs1 ++ r :: rs3)
  /\ lookup (sA st3) d <> None /\ lookup (sB st3) d <> None.
Proof. exact history_put_persists_proof. Qed.
Print Assumptions history_put_persists.

(** Invariant relating the replicas: agreement on the presence of [d]
    survives every history in which no upload of [d] fails (a failed upload
    may have reached one replica only; a successful existence check of [d]
    re-establishes it, [fm_ok_repairs_symmetric_difference]). *)
Theorem history_synced : forall h st st' rs d,
  run st h = (st', rs) -> synced st d ->
  (forall i o x r, nth_error h i = Some (o, OPut d x) -> nth_error rs i = Some r -> errs r = []) ->
  synced st' d.
Proof. exact history_synced_proof. Qed.
Print Assumptions history_synced.

(** The round counter grows by one for every Get/GetCapabilities of the
    history and by nothing else. *)
Theorem history_alternation : forall h st st' rs,
  run st h = (st', rs) -> rnd st' = rnd st + length (filter bump_op (map snd h)).
Proof. exact history_alternation_proof. Qed.
Print Assumptions history_alternation.

Theorem step_consults_by_parity : forall o st p st' r,
  step o st p = (st', r) ->
  if bump_op p then rnd st' = S (rnd st) /\ first_called (calls r) = first_of (S (rnd st))
  else rnd st' = rnd st.
Proof. exact step_rnd. Qed.
Print Assumptions step_consults_by_parity.

Theorem first_consulted_alternates : forall n, first_of (S n) = other (first_of n).
Proof. exact first_of_alternates. Qed.
Print Assumptions first_consulted_alternates.

(** ** Non-vacuity *)
Definition ofault (r0 : rid) (k0 : kind) (d0 : nat) (c : Z) : oracle :=
  fun r k d => if rid_eqb r r0 && kind_eqb k k0 && Nat.eqb d d0 then c else 0%Z.
Definition ok0 : oracle := fun _ _ _ => 0%Z.

(** B consulted first (round 1 -> 2), object only in A: repaired into B. *)
Example ex_read_repair :
  let st := mkst [(0, 7)] [] 1 in
  let '(st', r) := m_get ok0 st 0 in
  errs r = [] /\ okv r = [7] /\ lookup (sB st') 0 = Some 7
  /\ calls r = [(RB, KGet, 0); (RA, KGet, 0); (RB, KPut, 0)].
Proof. vm_compute. repeat split. Qed.

(** The repair upload fails UNAVAILABLE: code kept, second backend named. *)
Example ex_repair_fails :
  let st := mkst [(0, 7)] [] 1 in
  let '(st', r) := m_get (ofault RB KPut 0 14%Z) st 0 in
  errs r = [mkerr 14%Z (TBackend RA) RB] /\ sB st' = [].
Proof. vm_compute. repeat split. Qed.

(** A-only, B-only, both, neither: one existence check. *)
Example ex_find_missing :
  let st := mkst [(0, 1); (2, 3)] [(1, 2); (2, 3)] 0 in
  let '(st', r) := m_fm ok0 st [3; 0; 2; 1; 0] in
  errs r = [] /\ okv r = [3]
  /\ lookup (sB st') 0 = Some 1 /\ lookup (sA st') 1 = Some 2
  /\ lookup (sA st') 3 = None /\ lookup (sB st') 3 = None.
Proof. vm_compute. repeat split. Qed.

(** The source lost the object between FindMissing and Get: INTERNAL,
    "Backend A returned inconsistent results". *)
Example ex_inconsistent_source_is_internal :
  let st := mkst [(0, 1)] [] 0 in
  let '(st', r) := m_fm (ofault RA KGet 0 NF) st [0] in
  errs r = [mkerr INTERNAL (TIncons RA) RA] /\ okv r = [] /\ sB st' = [].
Proof. vm_compute. repeat split. Qed.

(** An upload that reaches A only, then the existence check heals it. *)
Example ex_history :
  let h := [(ofault RB KPut 0 14%Z, OPut 0 5); (ok0, OCap); (ok0, OFM [0]); (ok0, OGet 0)] in
  let '(st', rs) := run (mkst [] [] 0) h in
  map (fun r => is_nil (errs r)) rs = [false; true; true; true]
  /\ lookup (sA st') 0 = Some 5 /\ lookup (sB st') 0 = Some 5 /\ rnd st' = 2.
Proof. vm_compute. repeat split. Qed.

(** ** The property monitor is silent on the model and on every observation
    the judge accepts (proofs: Compose/MonSilentOp.v, Run/R11Proofs.v).

    One operation, at the level of the model: every clause of [check_op] and
    the alternation clause hold on a step of the model, for ALL replica
    contents, oracles and operations, and for every result [r] that shares
    with the model's result [rm] the answer, success/failure, any subset of
    its errors and the set of its replica calls (the same list for the
    alternating operations): exactly the freedom the two goroutines of
    Put/FindMissing leave. *)
Theorem monitor11_silent_on_one_step : forall n o st p st' rm r,
  step o st p = (st', rm) -> obs_rel p rm r ->
  check_op n o (sA st) (sB st) p r (sA st') (sB st') = nil /\ check_alt (rnd st) p r = nil.
Proof. exact mon11_one_step. Qed.
Print Assumptions monitor11_silent_on_one_step.

(** The monitor on whole traces, as the driver runs it.  [wf11_range inp]:
    every digest mentioned by an operation is below the universe size (the
    observation carries the replica contents for digests 0..n-1 only). *)
Theorem monitor11_silent_on_model : forall inp,
  wf11_range inp = true -> mon11 inp (run11 inp) = nil.
Proof. exact mon11_silent_on_model. Qed.
Print Assumptions monitor11_silent_on_model.

(** Every observation [agree_ops] accepts (any ONE of the model's errors; for
    Put/FindMissing any order of the call log, compared through [call_key]).
    [wf11_keys inp]: the digests of Put/FindMissing operations are below
    100000 ([call_key] packs the digest below that); [wf11_calls]: the call
    log observed for a Put/FindMissing consists of well-formed encodings
    (replica 0/1, kind 0..3, digest 0..99999). *)
Theorem monitor11_silent_on_allowed_observations : forall inp obs,
  wf11_range inp = true -> wf11_keys inp = true ->
  wf11_calls (sx_list (sx_nth inp 3)) (sx_list obs) = true ->
  is_panic obs = false ->
  agree_ops (sx_nat (sx_nth inp 0)) (init_state inp) (sx_list (sx_nth inp 3)) (sx_list obs) = true ->
  mon11 inp obs = nil.
Proof. exact mon11_silent_on_allowed. Qed.
Print Assumptions monitor11_silent_on_allowed_observations.

(** For the judge the driver runs: "agree" implies "no violation". *)
Theorem judge11_agree_implies_no_violation : forall inp obs,
  wf11_range inp = true -> wf11_keys inp = true ->
  wf11_calls (sx_list (sx_nth inp 3)) (sx_list obs) = true ->
  verdict_agree (judge11 inp obs) = true -> verdict_violates (judge11 inp obs) = false.
Proof. exact judge11_agree_not_violates. Qed.
Print Assumptions judge11_agree_implies_no_violation.

(** Non-vacuity: an existence check that repairs, an upload both of whose
    branches fail, a read; the observation reports the OTHER branch's error
    and logs the calls in another order than the model: all hypotheses hold,
    the judge agrees, the observation is not the model's output. *)
Definition c11_inp1 : sx :=
  L [A 2; L [A 7; A (-1)]; L [A (-1); A (-1)];
     L [L [A 2; L []; L [A 0; A 1]];
        L [A 1; L [L [A 0; A 1; A 1; A 14]; L [A 1; A 1; A 1; A 13]]; A 1; A 3; A 0];
        L [A 0; L []; A 0]]].
Definition c11_obs1 : sx :=
  L [L [A 1; L [A 1]; A 0; A 0; A 0;
        L [L [A 1; A 2; A 0]; L [A 0; A 0; A 0]; L [A 0; A 2; A 0]; L [A 1; A 1; A 0]];
        L [A 7; A (-1)]; L [A 7; A (-1)]];
     L [A 0; L []; A 13; A 2; A 2; L [L [A 1; A 1; A 1]; L [A 0; A 1; A 1]];
        L [A 7; A (-1)]; L [A 7; A (-1)]];
     L [A 1; L [A 7]; A 0; A 0; A 0; L [L [A 0; A 0; A 0]]; L [A 7; A (-1)]; L [A 7; A (-1)]]].
Example ex_allowed_observation :
  wf11_range c11_inp1 = true /\ wf11_keys c11_inp1 = true
  /\ wf11_calls (sx_list (sx_nth c11_inp1 3)) (sx_list c11_obs1) = true
  /\ is_panic c11_obs1 = false
  /\ agree_ops (sx_nat (sx_nth c11_inp1 0)) (init_state c11_inp1)
       (sx_list (sx_nth c11_inp1 3)) (sx_list c11_obs1) = true
  /\ sx_eqb (run11 c11_inp1) c11_obs1 = false
  /\ mon11 c11_inp1 c11_obs1 = nil.
Proof. vm_compute. repeat split. Qed.

(** *** Each hypothesis is needed.

    [wf11_range] (the harness refuses such inputs: [Exec] requires exactly n
    initial atoms per replica and every digest in 0..n-1).  On the model's
    own output: an upload of digest 1 with n = 1 (the observation cannot show
    it: clause 2); with replica A initially holding digest 1 beyond n = 1, a
    read of it (clause 3) and an existence check (clause 5). *)
Example range_needed_put :
  let inp := L [A 1; L [A (-1)]; L [A (-1)]; L [L [A 1; L []; A 1; A 5; A 0]]] in
  wf11_range inp = false /\ mon11 inp (run11 inp) = [2%Z].
Proof. vm_compute. split; reflexivity. Qed.
Example range_needed_get :
  let inp := L [A 1; L [A (-1); A 5]; L [A (-1)]; L [L [A 0; L []; A 1]]] in
  wf11_range inp = false /\ mon11 inp (run11 inp) = [3%Z].
Proof. vm_compute. split; reflexivity. Qed.
Example range_needed_fm :
  let inp := L [A 1; L [A (-1); A 5]; L [A (-1)]; L [L [A 2; L []; L [A 1]]]] in
  wf11_range inp = false /\ mon11 inp (run11 inp) = [5%Z].
Proof. vm_compute. split; reflexivity. Qed.

(** [wf11_calls] (the harness cannot produce such a log: it writes replica
    0/1, kind 0..3 and a digest of the universe).  A successful upload of
    digest 0; the oracle fails a call the operation never makes.  The
    observed log [(0 1 0) (0 11 0)] has the keys of the model's log
    [(0 1 0) (1 1 0)] (0*10^6+11*10^5 = 1*10^6+1*10^5), so the judge agrees,
    but it decodes to (A, GetCapabilities, 0), a failed call: clause 7.
    Likewise with the out-of-range digest 100000: (0 0 100000) has the key of
    (0 1 0). *)
Example calls_wf_needed :
  let inp := L [A 1; L [A (-1)]; L [A (-1)]; L [L [A 1; L [L [A 0; A 3; A 0; A 14]]; A 0; A 5; A 0]]] in
  let obs := L [L [A 1; L []; A 0; A 0; A 0; L [L [A 0; A 1; A 0]; L [A 0; A 11; A 0]]; L [A 5]; L [A 5]]] in
  wf11_range inp = true /\ wf11_keys inp = true
  /\ wf11_calls (sx_list (sx_nth inp 3)) (sx_list obs) = false /\ is_panic obs = false
  /\ agree_ops (sx_nat (sx_nth inp 0)) (init_state inp) (sx_list (sx_nth inp 3)) (sx_list obs) = true
  /\ mon11 inp (run11 inp) = nil /\ mon11 inp obs = [7%Z].
Proof. vm_compute. repeat split. Qed.
Example calls_digest_bound_needed :
  let inp := L [A 1; L [A (-1)]; L [A (-1)]; L [L [A 1; L [L [A 0; A 0; A 100000; A 14]]; A 0; A 5; A 0]]] in
  let obs := L [L [A 1; L []; A 0; A 0; A 0; L [L [A 0; A 0; A 100000]; L [A 1; A 1; A 0]]; L [A 5]; L [A 5]]] in
  wf11_range inp = true /\ wf11_keys inp = true
  /\ wf11_calls (sx_list (sx_nth inp 3)) (sx_list obs) = false /\ is_panic obs = false
  /\ agree_ops (sx_nat (sx_nth inp 0)) (init_state inp) (sx_list (sx_nth inp 3)) (sx_list obs) = true
  /\ mon11 inp (run11 inp) = nil /\ mon11 inp obs = [7%Z].
Proof.
  intros inp obs.
  split; [reflexivity|]. split; [reflexivity|]. split.
  { unfold inp, obs. cbn [sx_nth sx_list nth wf11_calls forallb]. unfold wf_call_sx at 1.
    apply Bool.andb_false_iff. left. apply Bool.orb_false_iff. split; [reflexivity|].
    apply Bool.andb_false_iff. left. apply Bool.andb_false_iff. right. reflexivity. }
  split; [reflexivity|]. split; [lazy; reflexivity|]. split; [lazy; reflexivity|].
  (* evaluating [Z.to_nat 100000] is what makes this dear to check: it stays a numeral, equal by [Nat.eqb_refl] *)
  unfold obs.
  erewrite (mon11_single inp _ _ (oracle_of [L [A 0; A 0; A 100000; A 14]]) (OPut 0 5)); [|reflexivity..].
  rewrite check_op_eq.
  change (dec_obs_res _) with (mkres [] [] [(RA, KGet, Z.to_nat 100000); (RB, KPut, 0)]).
  unfold cl7. cbn [okr errs is_nil negb orb calls forallb ocall fst snd kind_eqb andb].
  rewrite !(oracle_of_single RA KGet 100000 14), Nat.eqb_refl.
  reflexivity.
Qed.

(** [wf11_keys] (the harness bounds the universe by 6).  With every digest
    in range it can only fail for a universe above 100000, where evaluating
    the monitor costs ~10^10 steps; so the witness is a theorem for every
    [n] > [d] = 100000: an upload of [d] whose B branch is answered
    NOT_FOUND, observed with the call log [(0 2 0) (1 2 0)] (the keys of
    the model's [(0 1 d) (1 1 d)]): all other hypotheses hold, the judge
    agrees, the monitor is silent on the model's output and clause 8 fires
    on the observation.  The second example is the same collision at n = 1
    (cheap to evaluate, but out of range as well). *)
Theorem keys_needed : forall n d, Z.of_nat d = 100000%Z -> d < n ->
  wf11_range (kn_inp n) = true
  /\ wf11_keys (kn_inp n) = false
  /\ wf11_calls (sx_list (sx_nth (kn_inp n) 3)) (sx_list (kn_obs n d)) = true
  /\ is_panic (kn_obs n d) = false
  /\ agree_ops (sx_nat (sx_nth (kn_inp n) 0)) (init_state (kn_inp n))
       (sx_list (sx_nth (kn_inp n) 3)) (sx_list (kn_obs n d)) = true
  /\ mon11 (kn_inp n) (run11 (kn_inp n)) = nil
  /\ In 8%Z (mon11 (kn_inp n) (kn_obs n d)).
Proof. exact keys_hypothesis_needed. Qed.
Print Assumptions keys_needed.
Example keys_needed_instance :
  let n := Z.to_nat 100001 in let d := Z.to_nat 100000 in
  wf11_range (kn_inp n) = true /\ wf11_keys (kn_inp n) = false
  /\ In 8%Z (mon11 (kn_inp n) (kn_obs n d)).
Proof.
  cbv zeta.
  destruct (keys_hypothesis_needed (Z.to_nat 100001) (Z.to_nat 100000)) as (H1 & H2 & _ & _ & _ & _ & H7).
  - apply Z2Nat.id. discriminate.
  - apply Z2Nat.inj_lt; [discriminate|discriminate|reflexivity].
  - exact (conj H1 (conj H2 H7)).
Qed.
Example keys_needed_small :
  let inp := L [A 1; L [A (-1)]; L [A (-1)]; L [L [A 1; L [L [A 1; A 1; A 100000; A 5]]; A 100000; A 5; A 0]]] in
  let obs := L [L [A 0; L []; A 5; A 2; A 2; L [L [A 0; A 2; A 0]; L [A 1; A 2; A 0]]; L [A (-1)]; L [A (-1)]]] in
  wf11_keys inp = false
  /\ wf11_calls (sx_list (sx_nth inp 3)) (sx_list obs) = true /\ is_panic obs = false
  /\ agree_ops (sx_nat (sx_nth inp 0)) (init_state inp) (sx_list (sx_nth inp 3)) (sx_list obs) = true
  /\ mon11 inp (run11 inp) = nil /\ mon11 inp obs = [8%Z].
Proof.
  intros inp obs.
  assert (Hd : Z.of_nat (Z.to_nat 100000) = 100000%Z) by (apply Z2Nat.id; discriminate).
  set (d := Z.to_nat 100000) in Hd.
  assert (d0 : d <> 0) by (intros E; rewrite E in Hd; discriminate).
  split; [apply kn_wf_keys; reflexivity|]. split; [reflexivity|]. split; [reflexivity|].
  split; [exact (kn_agree 1 d Hd)|].
  split.
  - unfold run11. change (sx_list (sx_nth inp 3)) with [kn_op]. change (init_state inp) with (mkst [] [] 0).
    cbn [run_ops]. rewrite (kn_dec_op d Hd), (kn_step d Hd). cbn [map fst snd].
    erewrite (mon11_single inp _ _ kn_o (OPut d 5)); [|reflexivity|reflexivity|exact (kn_dec_op d Hd)].
    rewrite dec_obs_enc_res. cbn [okv errs calls firstn check_alt bump_op]. rewrite app_nil_r.
    rewrite (put_nf_check_op kn_o d 5 (TBackend RB) RB _ d0). cbn [wf_on forallb kind_eqb orb].
    rewrite (kn_oracle d Hd RB KPut d), Nat.eqb_refl. reflexivity.
  - unfold obs. erewrite (mon11_single inp _ _ kn_o (OPut d 5)); [|reflexivity|reflexivity|exact (kn_dec_op d Hd)].
    rewrite app_nil_r.
    change (dec_obs_res _) with (mkres [] [mkerr NF (TBackend RB) RB] [(RA, KFM, 0); (RB, KFM, 0)]).
    rewrite (put_nf_check_op kn_o d 5 (TBackend RB) RB _ d0), (kn_wf_on_obs d Hd). reflexivity.
Qed.
