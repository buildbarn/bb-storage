(** C20 — Digest / resource-name codecs round-trip and reject bad input; sets obey
    algebra.  Proofs are in Digest/DigestProofs.v, Digest/SetProofs.v and
    Run/R20Proofs.v; the Examples are proved here.

    Vocabulary (Digest/DigestModel.v): a Go [Digest] is its packed string [pack d];
    every getter re-parses it with the code's [unpack], whose index operations have an
    explicit [Panic] outcome.  [valid_digest d]: supported function, hash of the function's
    length in lower-case hex, 0 <= size < 2^63, instance name = valid components joined by
    single slashes.  The literal tables come from the Go source (Generated/Consts.v). *)
From Coq Require Import List NArith ZArith Bool Lia.
From BBS Require Import Common.Sx Generated.Consts Digest.DigestModel Digest.SetModel
     Digest.DigestProofs Digest.SetProofs Run.R20.
Import ListNotations.
Open Scope N_scope.

(** ** Packed string: the accessors of a constructed digest return its fields; none panics. *)
Theorem pack_unpack : forall d,
  valid_digest d ->
  get_function_enum (pack d) = Ok (d_fn d) /\
  get_hash_string (pack d) = Ok (d_hash d) /\
  get_size_bytes (pack d) = Ok (d_size d) /\
  get_instance_name (pack d) = Ok (d_inst d) /\
  get_proto (pack d) = Ok (d_hash d, d_size d) /\
  get_key (pack d) 1 = Ok (pack d) /\
  get_key (pack d) 0 = Ok (key0 d) /\
  (exists b, get_hash_bytes (pack d) = Ok b /\ hex_encode b = d_hash d) /\
  (exists b, get_compact_binary (pack d) = Ok (d_fn d :: b ++ put_varint (d_size d))
             /\ hex_encode b = d_hash d /\ N.of_nat (length b) * 2 = N.of_nat (length (d_hash d))).
Proof. exact pack_unpack_accessors. Qed.
Print Assumptions pack_unpack.

(** The validating constructor accepts exactly these fields and yields the packed string. *)
Theorem constructor_accepts_valid : forall d hb,
  valid_digest d -> get_bare_function (d_fn d) 0 = Some (d_fn d, hb) ->
  new_digest (d_inst d) (d_fn d, hb) (d_hash d) (d_size d) = Ok (pack d).
Proof. exact new_digest_valid. Qed.
Print Assumptions constructor_accepts_valid.

(** ** Round trips, for every valid digest, instance name and compressor *)
Theorem read_path_roundtrip : forall d comp,
  valid_digest d -> valid_compressor comp ->
  exists s, get_read_path (pack d) comp = Ok s /\ parse_read_path s = Ok (pack d, comp).
Proof. exact read_path_roundtrip_proof. Qed.
Print Assumptions read_path_roundtrip.

Theorem write_path_roundtrip : forall d uuid comp,
  valid_digest d -> valid_compressor comp -> uuid <> [] -> ~ In slash uuid ->
  exists s, get_write_path (pack d) uuid comp = Ok s /\ parse_write_path s = Ok (pack d, comp).
Proof. exact write_path_roundtrip_proof. Qed.
Print Assumptions write_path_roundtrip.

Theorem proto_roundtrip : forall d,
  valid_digest d ->
  exists f, get_digest_function (d_fn d) 0 = Ok f /\
    exists h s, get_proto (pack d) = Ok (h, s) /\ new_digest (d_inst d) f h s = Ok (pack d).
Proof. exact proto_roundtrip_proof. Qed.
Print Assumptions proto_roundtrip.

(** compact binary: also whatever follows the encoding in the reader is left unread *)
Theorem compact_roundtrip : forall d tail,
  valid_digest d ->
  exists b, get_compact_binary (pack d) = Ok b /\
            new_digest_from_compact_binary (d_inst d) (b ++ tail) = Ok (pack d, tail).
Proof. exact compact_roundtrip_proof. Qed.
Print Assumptions compact_roundtrip.

Theorem varint_roundtrip : forall x tail,
  (- 2 ^ 63 <= x < 2 ^ 63)%Z -> read_varint (put_varint x ++ tail) = Ok (x, tail).
Proof. exact read_put_varint. Qed.
Print Assumptions varint_roundtrip.

(** ** Keys are equal exactly when the fields agree *)
Theorem key_eq_iff_with_instance : forall d1 d2,
  valid_digest d1 -> valid_digest d2 ->
  (get_key (pack d1) 1 = get_key (pack d2) 1 <-> d1 = d2).
Proof. exact key_with_instance_eq_iff. Qed.
Print Assumptions key_eq_iff_with_instance.

Theorem key_eq_iff_without_instance : forall d1 d2,
  valid_digest d1 -> valid_digest d2 ->
  (get_key (pack d1) 0 = get_key (pack d2) 0 <->
   d_fn d1 = d_fn d2 /\ d_hash d1 = d_hash d2 /\ d_size d1 = d_size d2).
Proof. exact key_without_instance_eq_iff. Qed.
Print Assumptions key_eq_iff_without_instance.

(** ** Ancestors: exactly the chain of component prefixes, shortest first *)
Theorem parents_spec : forall d comps,
  valid_digest d -> d_inst d = join_slash comps -> Forall valid_component comps ->
  get_parents (pack d) = Ok (map (fun p => pack (with_instance d (join_slash p))) (prefixes comps)).
Proof. exact parents_spec_proof. Qed.
Print Assumptions parents_spec.

(** ** Totality: no input makes a parser panic (arbitrary byte strings) *)
Theorem parse_total : forall s, parse_read_path s <> Panic /\ parse_write_path s <> Panic.
Proof. exact parse_total_proof. Qed.
Print Assumptions parse_total.

Theorem instance_name_total : forall s, new_instance_name s <> Panic.
Proof. exact instance_name_total_proof. Qed.
Print Assumptions instance_name_total.

Theorem compact_total : forall inst inp, new_digest_from_compact_binary inst inp <> Panic.
Proof. exact compact_total_proof. Qed.
Print Assumptions compact_total.

(** ** Rejection, one statement per malformed class of the property *)
Theorem reject_wrong_length : forall inst f h s,
  N.of_nat (length h) <> 2 * snd f -> new_digest inst f h s = Err InvalidArgument.
Proof. exact reject_wrong_hash_length. Qed.
Print Assumptions reject_wrong_length.

Theorem reject_non_hex : forall inst f h s c,
  In c h -> lowerhex c = false -> new_digest inst f h s = Err InvalidArgument.
Proof. exact reject_non_lowerhex. Qed.
Print Assumptions reject_non_hex.

Theorem reject_uppercase : forall c, 65 <= c <= 70 -> lowerhex c = false.
Proof. exact uppercase_is_not_lowerhex. Qed.
Print Assumptions reject_uppercase.

Theorem reject_negative : forall inst f h s,
  (s < 0)%Z -> new_digest inst f h s = Err InvalidArgument.
Proof. exact reject_negative_size. Qed.
Print Assumptions reject_negative.

Theorem reject_non_numeric : forall s,
  forallb is_digit (strip_sign s) = false -> parse_int s = None.
Proof. exact reject_non_numeric_size. Qed.
Print Assumptions reject_non_numeric.

Theorem reject_overflowing : forall ds,
  ds <> [] -> forallb is_digit ds = true -> 2 ^ 63 <= horner 0 ds -> parse_int ds = None.
Proof. exact reject_overflowing_size. Qed.
Print Assumptions reject_overflowing.

Theorem accepted_size_is_int64 : forall s z, parse_int s = Some z -> (- 2 ^ 63 <= z < 2 ^ 63)%Z.
Proof. exact parse_int_range. Qed.
Print Assumptions accepted_size_is_int64.

Theorem reject_reserved : forall comps c,
  Forall (fun c => c <> []) comps -> In c comps -> In c c20_reserved ->
  new_instance_name_from_components comps = Err InvalidArgument.
Proof. exact reject_reserved_keyword. Qed.
Print Assumptions reject_reserved.

Theorem reject_redundant_slash :
  (forall s, new_instance_name (slash :: s) = Err InvalidArgument) /\
  (forall s, new_instance_name (s ++ [slash]) = Err InvalidArgument) /\
  (forall a b, new_instance_name (a ++ slash :: slash :: b) = Err InvalidArgument).
Proof. exact reject_redundant_slashes. Qed.
Print Assumptions reject_redundant_slash.

Theorem reject_unknown_fn : forall e,
  get_bare_function e 0 = None -> get_digest_function e 0 = Err InvalidArgument.
Proof. exact reject_unknown_function. Qed.
Print Assumptions reject_unknown_fn.

Theorem reject_unknown_comp : forall header name rest,
  validate_components header = Ok tt -> compressor_by_name name = None ->
  parse_common header (c20_compressed_blobs :: name :: rest) = Err Unimplemented.
Proof. exact reject_unknown_compressor. Qed.
Print Assumptions reject_unknown_comp.

Theorem reject_truncated : forall s,
  ((length (fields_by_slash s) < 3)%nat -> parse_read_path s = Err InvalidArgument) /\
  ((length (fields_by_slash s) < 5)%nat -> parse_write_path s = Err InvalidArgument).
Proof. exact reject_truncated_paths. Qed.
Print Assumptions reject_truncated.

(** ** Digest sets: sorted (Go string order, strictly: hence duplicate-free) and equal to the
    mathematical sets.  [sorted l] = StronglySorted by [bltb]. *)
Theorem build_spec : forall l,
  sorted (build l) /\ NoDup (build l) /\ forall x, In x (build l) <-> In x l.
Proof. exact build_spec_proof. Qed.
Print Assumptions build_spec.

Theorem union_spec : forall sets,
  Forall sorted sets ->
  sorted (union sets) /\ NoDup (union sets) /\
  forall x, In x (union sets) <-> exists s, In s sets /\ In x s.
Proof. exact union_spec_proof. Qed.
Print Assumptions union_spec.

Theorem diff_inter_spec : forall a b,
  sorted a -> sorted b ->
  let '(only_a, both, only_b) := diff_inter a b in
  (sorted only_a /\ sorted both /\ sorted only_b) /\
  (forall x, In x only_a <-> In x a /\ ~ In x b) /\
  (forall x, In x both <-> In x a /\ In x b) /\
  (forall x, In x only_b <-> In x b /\ ~ In x a).
Proof. exact diff_inter_spec_proof. Qed.
Print Assumptions diff_inter_spec.

Theorem remove_empty_spec : forall ds,
  Forall valid_digest ds -> sorted (map pack ds) ->
  exists r, remove_empty_blob (map pack ds) = Ok r /\ sorted r /\
    r = map pack (filter (fun d => negb (Z.eqb (d_size d) 0)) ds).
Proof. exact remove_empty_spec_proof. Qed.
Print Assumptions remove_empty_spec.

(** PartitionByInstanceName: one set per instance name, in the order of first occurrence, each
    holding exactly the digests of that instance name in the set's order; no panic. *)
Theorem partition_spec : forall ds,
  Forall valid_digest ds ->
  partition_by_instance_name (map pack ds) =
  Ok (map (fun i => map pack (filter (fun d => beqb (d_inst d) i) ds)) (firsts beqb (map d_inst ds))).
Proof. exact partition_spec_proof. Qed.
Print Assumptions partition_spec.

(** the generic form: for any key function *)
Theorem partition_generic : forall (T K : Type) (keqb : K -> K -> bool),
  (forall a b, keqb a b = true <-> a = b) ->
  forall (key : T -> K) s, partition_by keqb key s = map (part_of keqb key s) (firsts keqb (map key s)).
Proof. exact @partition_by_spec. Qed.
Print Assumptions partition_generic.

(** ** Instance names: every valid name is accepted unchanged *)
Theorem instance_name_accepts_valid : forall v, valid_instance v -> new_instance_name v = Ok v.
Proof. exact instance_name_accepts_valid_proof. Qed.
Print Assumptions instance_name_accepts_valid.

(** ** Whatever a resource name parser accepts is a non-degenerate digest with a known compressor
    (the contrapositive rejects every malformed class at once: wrong length, non-hex, uppercase,
    negative / non-numeric / overflowing size, reserved keyword, unknown function or compressor). *)
Theorem parse_accepts_only_wellformed : forall s v c,
  (parse_read_path s = Ok (v, c) \/ parse_write_path s = Ok (v, c)) ->
  (exists d, valid_digest d /\ v = pack d) /\ valid_compressor c.
Proof. exact parse_sound_proof. Qed.
Print Assumptions parse_accepts_only_wellformed.

(** ** Non-vacuity: concrete instances that meet the hypotheses *)
Definition ex_md5 : bytes := [56; 98; 49; 97; 57; 57; 53; 51; 99; 52; 54; 49; 49; 50; 57; 54; 97; 56; 50; 55; 97; 98; 102; 56; 99; 52; 55; 56; 48; 52; 100; 55].
Definition ex_digest : digest :=
  {| d_fn := 3; d_hash := ex_md5; d_size := 5%Z; d_inst := [97; 47; 46; 46; 47; 98] (* "a/../b" *) |}.
Example ex_digest_valid : valid_digest ex_digest.
Proof.
  constructor; cbn [ex_digest d_fn d_hash d_size d_inst].
  - vm_compute. tauto.
  - exists 16. split; reflexivity.
  - reflexivity.
  - lia.
  - exists [[97]; [46; 46]; [98]]. split; [reflexivity|].
    repeat constructor; apply valid_component_intro; reflexivity.
Qed.
(** the read path of "a/../b" keeps the dot-dot component and parses back (finding F8 is the
    pinned code cleaning it away) *)
Definition ex_path : bytes :=
  [97; 47; 46; 46; 47; 98; 47] ++ c20_compressed_blobs ++ [47; 122; 115; 116; 100; 47] ++ ex_md5 ++ [47; 53].
Example ex_read_path :
  get_read_path (pack ex_digest) 1 = Ok ex_path /\ parse_read_path ex_path = Ok (pack ex_digest, 1).
Proof. split; vm_compute; reflexivity. Qed.
Example ex_valid_compressor : valid_compressor 1 /\ valid_compressor 0.
Proof. split; vm_compute; tauto. Qed.
Example ex_union :
  union [[[1]; [3]]; []; [[2]; [3]]; [[1]; [4]]] = [[1]; [2]; [3]; [4]]
  /\ Forall sorted [[[1]; [3]]; []; [[2]; [3]]; [[1]; [4]]].
Proof. split; [vm_compute; reflexivity|]. repeat constructor. Qed.

(** ** The monitor used on implementation observations never fires on the model.

    [judge20] is deterministic ([judge_det]): the model predicts one observation,
    [run20 inp]; the monitor [mon20] - the property as a decidable check, clauses
    1..17 - is silent on it for every input.  [inp_wf20 inp] (Run/R20Proofs.v) is
      - structured digests (kind 3): the size is below 2^63 (an int64);
      - digest sets (kind 6): the universe is a list of canonically written valid
        digests [(inst fn hash size)] (bytes and function as non-negative atoms,
        exactly these four fields) and every set member is an index into it.
    No condition for resource names (arbitrary bytes), instance names and compact
    binary (arbitrary bytes).  harness/c20.go takes sizes as int64 and builds the
    universe entries itself from digests it constructed. *)
From BBS Require Import Run.R20Proofs.

Theorem monitor_silent_on_model : forall inp, inp_wf20 inp -> mon20 inp (run20 inp) = [].
Proof. exact mon20_silent_on_model. Qed.
Print Assumptions monitor_silent_on_model.

(** Each hypothesis is needed: size 2^63 in a structured digest; two universe
    entries differing only in how a byte is written; an entry that is no digest;
    an entry of size 2^64; a set member outside the universe. *)
Example monitor_domain_boundary :
  mon20 (ex_structured (2 ^ 63)) (run20 (ex_structured (2 ^ 63))) = [8; 1; 2; 3; 4; 5]%Z
  /\ (let i := ex_sets (L [ex_entry (L [A 0]) 3 5; ex_entry (L [A (-5)]) 3 5]) (L []) in mon20 i (run20 i) = [6]%Z)
  /\ (let i := ex_sets (L [ex_entry (L [A 97]) 99 5]) (L []) in mon20 i (run20 i) = [6; 13; 14]%Z)
  /\ (let i := ex_sets (L [ex_entry (L [A 97]) 3 (2 ^ 64)]) (L [L [A 0]]) in mon20 i (run20 i) = [14]%Z)
  /\ (let i := ex_sets (L [ex_entry (L [A 97]) 3 5]) (L [L [A 5]]) in mon20 i (run20 i) = [9; 11; 13; 14]%Z).
Proof.
  exact (conj size_bound_needed (conj canonical_entries_needed (conj valid_entries_needed
          (conj entry_size_needed set_index_needed)))).
Qed.

(** Non-vacuity: a set case inside the domain. *)
Example monitor_silent_example : inp_wf20 ex_sets_ok /\ mon20 ex_sets_ok (run20 ex_sets_ok) = []%Z.
Proof. exact (conj ex_sets_ok_wf ex_sets_ok_silent). Qed.
