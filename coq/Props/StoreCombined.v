(** Compositions of the store theorems proved separately for C01, C04, C05,
    C08 and C10, all about the one model Store/Model.v: C01's and C04's
    results discharge the hypotheses that the theorems of C05, C08 and C10
    carry.  Statements and their (short) proofs. *)
From Coq Require Import List NArith ZArith Bool Arith Lia.
From BBS Require Import Common.Sx Store.Model Store.Wf Store.WfTids Run.RStore Run.R01 Run.R05 Run.R10.
From BBS Require Import Store.P01Defs Store.P01Final Store.P10Monitor Store.P05Touch Store.P04Main Store.P04Step.
From BBS Require Props.C04 Props.C05 Props.C08 Props.C10.
Import ListNotations.

(** [mon01_model] of Store/P10Monitor.v is that of Store/P01Defs.v, deduplicated *)
Lemma mon01_model_agree w es : P10Monitor.mon01_model w es = dedupZ (P01Defs.mon01_model w es).
Proof. reflexivity. Qed.

(** C10 at full strength: on a hierarchical store, for every well-formed
    world and schedule, the C10 monitor (content, provenance under an
    ancestor-or-self instance name, no integrity error without corruption,
    readability under every descendant while nothing was released) is silent
    on the model. *)
Theorem store_model_satisfies_C10 : forall w es,
  wf_world w = true -> wf_ops w [] es = true -> wf_tids es = true ->
  c_hier (w_cfg w) = true ->
  mon10_model w es = [].
Proof.
  intros w es Hw Ho Ht Hh.
  apply Props.C10.store_model_satisfies_C10_given_C01; [exact Hh|].
  rewrite mon01_model_agree, (P01_final w es Hw Ho Ht). reflexivity.
Qed.
Print Assumptions store_model_satisfies_C10.

(** C05 with C01's integrity theorem plugged in: on the model's own
    observations only the two recorded shortfalls (clauses 5 and 6: findings
    F10 and F11) can ever be reported; clauses 1-4 never fire. *)
Theorem store_model_satisfies_C05_final : forall inp,
  let w := dec_world inp in
  let es := dec_ops inp in
  wf_world w = true -> wf_ops w [] es = true -> wf_tids es = true ->
  forall z, In z (mon05 inp (run_store inp)) -> z = 5%Z \/ z = 6%Z.
Proof.
  intros inp w es Hw Ho Ht.
  apply Props.C05.store_model_satisfies_C05_given_C01; [|exact Ho|exact Ht].
  intros es' Ho' Ht' Hc. exact (proj2 (P01_no_negs w es' Hw Ho' Ht' Hc)).
Qed.
Print Assumptions store_model_satisfies_C05_final.

(** The same for the model's observations carrying the model's own write
    indication (Run/R05.v: [run05], [wrote] - what C05's judge compares with
    the device write count of the implementation): clauses 1, 2 and 3 never
    fire - in particular an immediately repeated Get or single-digest
    FindMissing writes nothing; what can be reported is 4, 5, 6, 7 (the
    recorded findings F8, F10, F11, F12; Props/C05.v clause4/5/6/7_refuted
    show that each of them is reported for some well-formed schedule). *)
Theorem store_model_satisfies_C05_final_with_writes : forall inp,
  let w := dec_world inp in
  let es := dec_ops inp in
  wf_world w = true -> wf_ops w [] es = true -> wf_tids es = true ->
  forall z, In z (mon05 inp (run05 inp)) -> z = 4%Z \/ z = 5%Z \/ z = 6%Z \/ z = 7%Z.
Proof.
  intros inp w es Hw Ho Ht.
  apply Props.C05.store_model_idempotent_C05_given_C01; [|exact Ho|exact Ht].
  intros es' Ho' Ht' Hc. exact (proj2 (P01_no_negs w es' Hw Ho' Ht' Hc)).
Qed.
Print Assumptions store_model_satisfies_C05_final_with_writes.

(** C08 item 5 completed with C04's fuel theorem: in every reachable state of
    a well-formed world (in particular after any number of detections), an
    upload of an object that fits a block is accepted (parks) unless the
    block-device allocator has no free region left. *)
Theorem still_accepts_uploads : forall w es tid o i s' out,
  wf_world w = true ->
  let s := reach w es in
  thr_get (s_threads s) tid = None -> (osize w o <= c_bs (w_cfg w))%N ->
  step w s (OPutStart tid o i) = (s', out) ->
  out = Parked \/
  (out = Done cUnavailable [] /\ in_memory (w_cfg w) = false /\ s_free s' = []).
Proof.
  intros w es tid o i s' out Hw s Hthr Hsz Hstep.
  destruct (Props.C08.still_accepts_uploads_partial w s tid o i s' out Hthr Hsz Hstep) as [H|[H|H]];
    [left; exact H|right; exact H|].
  exfalso.
  pose proof (Props.C04.fuel_suffices w es Hw) as HF. cbn zeta in HF.
  destruct HF as (_ & _ & _ & _ & _ & _ & _ & _ & Hok).
  specialize (Hok (OPutStart tid o i)). fold s in Hok. rewrite Hstep in Hok. cbn [snd] in Hok.
  subst out. cbn [out_ok] in Hok. destruct Hok as [Hneg|[t Heq]]; [lia|discriminate].
Qed.
Print Assumptions still_accepts_uploads.
