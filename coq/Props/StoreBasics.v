(** Basic theorems about the local-store model, shared by C01/C04/C05/C08/C10. *)
From Coq Require Import List NArith ZArith Bool.
From BBS Require Import Store.Model Store.Basics.
Import ListNotations.
Open Scope N_scope.

Theorem lookup_resolves_only_own_valid_entries : forall s k l,
  index_get s k = Some l ->
  In (k, l) (map (fun e => (k, snd e)) (filter (fun e => key_eqb (fst e) k) (s_index s)))
  /\ loc_valid s l = true.
Proof. exact index_get_sound. Qed.
Print Assumptions lookup_resolves_only_own_valid_entries.

Theorem lookup_never_resolves_into_quarantine : forall s k l,
  index_get s k = Some l -> s_tbr s <= l_abs l /\ l_abs l < s_released s + N.of_nat (length (s_blocks s)).
Proof.
  intros s k l H. apply index_get_some in H. destruct H as [_ Hv]. unfold loc_valid in Hv.
  apply andb_true_iff in Hv. destruct Hv as [H1 H2].
  apply N.leb_le in H1. apply N.ltb_lt in H2. split; assumption.
Qed.
Print Assumptions lookup_never_resolves_into_quarantine.

(** the put finalizer never acknowledges a write into a quarantined or released block *)
Theorem finalizer_refuses_quarantined_block : forall c s wr ok l s',
  finalize c s wr ok = (Ok l, s') -> ok = true /\ s_tbr s' <= wr_abs wr.
Proof.
  intros c s wr ok l s'. unfold finalize. destruct ok; cbn [negb]; [|discriminate].
  destruct (wr_abs wr <? s_tbr (unpin c s (wr_uid wr))) eqn:Hlt; [discriminate|].
  intros H. inversion H; subst. split; [reflexivity|]. apply N.ltb_ge in Hlt. exact Hlt.
Qed.
Print Assumptions finalizer_refuses_quarantined_block.
