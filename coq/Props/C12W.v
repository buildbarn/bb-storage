(** C12W — the wiring of the sharding backend: the backend reached is the one of
    the shard the selector chose.  The model is C12's selector; the monitor is
    silent on it for every configuration and digest list. *)
From Coq Require Import List ZArith NArith Bool Lia.
From BBS Require Import Common.Sx Common.SxFactsMA Sharding.Rendezvous Sharding.MonSilentSel Run.R12 Run.R12W.
Import ListNotations.

Theorem mon12W_silent_on_model : forall inp, mon12W inp (run12W inp) = [].
Proof.
  intros inp. unfold mon12W, run12W.
  destruct (new_selector (cfg_of (sx_nth inp 1))) as [sel|] eqn:Hs; [|reflexivity].
  set (obs := L (map (fun d => let i := get_shard sel (sx_N (sx_nth d 0)) in L [of_nat i; of_nat i; of_nat i; of_nat i])
                     (sx_list (sx_nth inp 2)))).
  assert (Hrej : is_reject obs = false).
  { unfold obs. destruct (sx_list (sx_nth inp 2)) as [|d [|d2 l]]; reflexivity. }
  rewrite Hrej.
  assert (HD : forall o, In o (sx_list obs) -> exists i, (i < length (sx_list (sx_nth inp 1)))%nat /\
                                                 o = L [of_nat i; of_nat i; of_nat i; of_nat i]).
  { intros o Ho. unfold obs in Ho. cbn [sx_list] in Ho.
    apply in_map_iff in Ho. destruct Ho as (d & <- & _).
    exists (get_shard sel (sx_N (sx_nth d 0))). split; [|reflexivity].
    pose proof (get_shard_in_range _ _ (sx_N (sx_nth d 0)) Hs) as Hr.
    unfold cfg_of in Hr. rewrite map_length in Hr. exact Hr. }
  cbv zeta. apply two_checks_silent; apply forallb_forall; intros o Ho;
    destruct (HD o Ho) as (i & Hi & ->); cbn [sx_nth sx_list nth].
  - rewrite !sx_nat_of_nat, Nat.eqb_refl, Z.eqb_refl. cbn [andb].
    apply andb_true_iff. split; [apply Nat.ltb_lt; exact Hi|].
    unfold of_nat. cbn [sx_Z]. apply Z.leb_le. lia.
  - rewrite !Nat.eqb_refl, !Z.eqb_refl. reflexivity.
Qed.
Print Assumptions mon12W_silent_on_model.

(** the model's expectation is C12's routing function: the shard reached for a
    digest is [get_shard] of its leading hash bytes over the configured set *)
Theorem wiring_model_is_the_selector : forall inp sel,
  new_selector (cfg_of (sx_nth inp 1)) = Some sel ->
  run12W inp = L (map (fun d => let i := get_shard sel (sx_N (sx_nth d 0)) in L [of_nat i; of_nat i; of_nat i; of_nat i])
                      (sx_list (sx_nth inp 2))).
Proof. intros inp sel H. unfold run12W. rewrite H. reflexivity. Qed.
Print Assumptions wiring_model_is_the_selector.
