(** C17 - read caching, read fallback, replicator decorators and existence
    caches are transparent.  The theorems are proved in the files of Compose/
    and Run/ (Run/R17Proofs.v, Run/R17Log*.v); the examples are computed here.

    Sequential composites (Compose/Caching.v): backend [BA] is the fast
    (read caching) / primary (read fallback) backend, [BB] the slow / secondary
    one; [sa s]/[sb s] are their contents in state [s]; [fl s] are the faults
    still to be injected, one per backend call (so the theorems that do not
    assume [fl s = []] hold for every fault sequence); every theorem is about
    an arbitrary state, hence about every history leading to it. *)
From Coq Require Import List ZArith NArith Bool Arith.
From BBS Require Import Common.Sx Common.ListX
  Compose.Caching Compose.CachingProofs Compose.MonSilentCaching
  Compose.ExistenceCache Compose.ExistenceCacheProofs
  Compose.Replicators Compose.ReplicatorsProofs.
Import ListNotations.
Open Scope Z_scope.

(** ** Read caching / read fallback: an object is returned iff the fast/primary
    or the slow/secondary backend holds it.  [cget] is the Get of both
    composites (they differ in error texts only). *)

(** "only if", for every replicator stack and under every fault sequence. *)
Theorem readcache_readfallback_get_only_if_held : forall r d s s1,
  cget r d s = (0, s1) -> memb d (sa s) = true \/ memb d (sb s) = true.
Proof. exact cget_sound. Qed.
Print Assumptions readcache_readfallback_get_only_if_held.

(** "iff" when no backend call fails, for every copying replicator stack
    (local, under any nesting of deduplicating / concurrency-limiting
    decorators) and for the non-copying one: held => returned, not held =>
    NOT_FOUND. *)
Theorem readcache_readfallback_iff : forall r d s, (copying r = true \/ r = RNoop) -> fl s = [] ->
  fst (cget r d s) = if memb d (sa s) || memb d (sb s) then 0 else 5.
Proof. exact cget_complete_copying. Qed.
Print Assumptions readcache_readfallback_iff.

(** Uploads go to the slow (read caching) respectively primary (fallback)
    backend only: exactly one backend call, a Put there; the other backend's
    contents are unchanged; an acknowledged upload is stored there. *)
Theorem uploads_go_to_slow_resp_primary_only : forall k d s c s1, cput k d s = (c, s1) ->
  (exists f, lg s1 = mkcall (put_target k) CPut [d] f :: lg s) /\
  (forall b, b <> put_target k -> contents b s1 = contents b s) /\
  (c = 0 -> memb d (contents (put_target k) s1) = true).
Proof. exact cput_only_target. Qed.
Print Assumptions uploads_go_to_slow_resp_primary_only.

Example put_targets : put_target ReadCaching = BB /\ put_target ReadFallback = BA.
Proof. split; reflexivity. Qed.

(** After a successful read through a copying replicator (local, possibly
    under deduplicating / concurrency-limiting decorators) the object is in
    the fast respectively primary backend - under every fault sequence. *)
Theorem read_through_populates : forall r d s s1, copying r = true ->
  cget r d s = (0, s1) -> memb d (sa s1) = true.
Proof. exact cget_populates. Qed.
Print Assumptions read_through_populates.

(** FindMissing through a fallback reports exactly the objects missing from
    both backends (every replicator, every fault sequence: if it answers at
    all) ... *)
Theorem fallback_fm_exact : forall r ds s m s1, cfm ReadFallback r ds s = (0, m, s1) ->
  m = filter (fun d => negb (memb d (sa s)) && negb (memb d (sb s))) ds.
Proof. exact cfm_fallback_exact. Qed.
Print Assumptions fallback_fm_exact.

(** ... and it does answer when no backend call fails; objects only the
    secondary held are in the primary afterwards. *)
Theorem fallback_fm_answers_and_repairs : forall ds s, fl s = [] ->
  let '(c, m, s1) := cfm ReadFallback RLocal ds s in
  c = 0 /\ forall d, In d ds -> memb d (sb s) = true -> memb d (sa s1) = true.
Proof. exact cfm_fallback_total. Qed.
Print Assumptions fallback_fm_answers_and_repairs.

(** Replication only ever adds objects of the source to the sink. *)
Theorem replication_only_copies : forall r ds s c s1, rmultiple r ds s = (c, s1) -> grows s s1.
Proof. exact rmultiple_grows. Qed.
Print Assumptions replication_only_copies.

(** Non-vacuity: object 1 only in the slow backend; a read through the local
    replicator returns it and it is in the fast backend afterwards; with a
    failing sink Put (fault at the third call) the read fails with that code. *)
Example read_through_example :
  let s := mkst [0%nat] [1%nat] [] [] in
  fst (cget RLocal 1 s) = 0 /\ sa (snd (cget RLocal 1 s)) = [0%nat; 1%nat] /\
  fst (cget RLocal 1 (mkst [0%nat] [1%nat] [0; 0; 14] [])) = 14 /\
  fst (cget (RDedup RLocal) 2 s) = 5.
Proof. vm_compute. repeat split; reflexivity. Qed.

(** ** Composite reads: GetFromComposite(parent p, child of p, slicer) through
    either composite.  [cgfc r p] is GetFromCompositeWithBlobReplicator with
    the composite's single-shot selector: the fast / primary backend [BA]
    first; only on NOT_FOUND the replicator's ReplicateComposite, once -
    noop: the source's GetFromComposite; local and the decorators: the
    replicator's own ReplicateMultiple on {p} (the WHOLE parent is put into
    the sink), then the child is read back from the sink, NOT_FOUND there
    becoming INTERNAL.  The child is available iff the parent is held. *)

(** "only if": every replicator stack, every fault sequence. *)
Theorem composite_read_only_if_parent_held : forall r p s s1,
  cgfc r p s = (0, s1) -> memb p (sa s) = true \/ memb p (sb s) = true.
Proof. exact cgfc_sound. Qed.
Print Assumptions composite_read_only_if_parent_held.

(** "iff" when no backend call fails: the child's bytes whenever fast/primary
    or slow/secondary holds the parent, NOT_FOUND only if neither does. *)
Theorem composite_read_iff : forall r p s, (copying r = true \/ r = RNoop) -> fl s = [] ->
  fst (cgfc r p s) = if memb p (sa s) || memb p (sb s) then 0 else 5.
Proof. exact cgfc_complete_copying. Qed.
Print Assumptions composite_read_iff.

(** The same with "no call of this read failed" read off the recorded calls,
    whatever faults were left to inject (the form the monitor uses). *)
Theorem composite_read_iff_when_no_call_failed : forall r p s c s1, (copying r = true \/ r = RNoop) ->
  cgfc r p s = (c, s1) -> unfaulted (lg s1) = true ->
  c = if memb p (sa s) || memb p (sb s) then 0 else 5.
Proof. exact cgfc_complete_unfaulted. Qed.
Print Assumptions composite_read_iff_when_no_call_failed.

(** After a successful composite read through anything but the bare
    non-copying replicator the PARENT is in the fast / primary backend, under
    every fault sequence ... *)
Theorem composite_read_through_populates : forall r p s s1, r <> RNoop ->
  cgfc r p s = (0, s1) -> memb p (sa s1) = true.
Proof. exact cgfc_populates. Qed.
Print Assumptions composite_read_through_populates.

(** ... and a parent that only the slow / secondary backend holds IS read
    through when no call fails: served, in the fast / primary backend
    afterwards, the slow / secondary backend unchanged. *)
Theorem composite_read_through_of_slow_only_parent : forall r p s, copying r = true -> fl s = [] ->
  memb p (sa s) = false -> memb p (sb s) = true ->
  fst (cgfc r p s) = 0 /\ memb p (sa (snd (cgfc r p s))) = true /\ sb (snd (cgfc r p s)) = sb s.
Proof. exact cgfc_read_through. Qed.
Print Assumptions composite_read_through_of_slow_only_parent.

(** A backend failure other than NOT_FOUND at ANY call of the read surfaces
    as an error ([l] = the calls this read added to the log), for composite
    reads and for Get, every replicator stack, every fault sequence. *)
Theorem composite_read_backend_failure_surfaces : forall r p s c s1, cgfc r p s = (c, s1) ->
  exists l, lg s1 = l ++ lg s /\ (hard l = true -> c <> 0).
Proof. exact cgfc_hard_fault_surfaces. Qed.
Print Assumptions composite_read_backend_failure_surfaces.

Theorem get_backend_failure_surfaces : forall r d s c s1, cget r d s = (c, s1) ->
  exists l, lg s1 = l ++ lg s /\ (hard l = true -> c <> 0).
Proof. exact cget_hard_fault_surfaces. Qed.
Print Assumptions get_backend_failure_surfaces.

(** Which backend name is put in front of the error: read caching none;
    read fallback "Primary" ([1]) exactly for an error other than NOT_FOUND of
    the primary's own answer, which is then the result. *)
Theorem read_caching_adds_no_prefix : forall first final, read_pfx ReadCaching first final = 0.
Proof. exact read_pfx_caching. Qed.
Print Assumptions read_caching_adds_no_prefix.

Theorem fallback_primary_prefix : forall r p s, step_pfx ReadFallback r (OGfc p) s = 1 <->
  (fst (bgfc BA p s) <> 0 /\ fst (bgfc BA p s) <> 5).
Proof. exact gfc_pfx_primary. Qed.
Print Assumptions fallback_primary_prefix.

Theorem composite_read_primary_error_is_result : forall r p s,
  fst (bgfc BA p s) <> 5 -> fst (cgfc r p s) = fst (bgfc BA p s).
Proof. exact gfc_primary_error_is_result. Qed.
Print Assumptions composite_read_primary_error_is_result.

(** Non-vacuity: parent 1 only in the slow backend, read through the
    deduplicating local replicator: five backend calls, the parent is in the
    fast backend afterwards; parent 0 only in the fast backend is served by
    one call; a sink Put failing with UNAVAILABLE surfaces; so does a sink
    that lost the parent between the copy and the read-back (INTERNAL). *)
Example composite_read_example :
  let s := mkst [0%nat] [1%nat] [] [] in
  fst (cgfc (RDedup RLocal) 1 s) = 0 /\ sa (snd (cgfc (RDedup RLocal) 1 s)) = [0%nat; 1%nat] /\
  length (lg (snd (cgfc (RDedup RLocal) 1 s))) = 5%nat /\
  fst (cgfc (RDedup RLocal) 0 s) = 0 /\ length (lg (snd (cgfc (RDedup RLocal) 0 s))) = 1%nat /\
  fst (cgfc RLocal 1 (mkst [0%nat] [1%nat] [0; 0; 14] [])) = 14 /\
  fst (cgfc RLocal 1 (mkst [0%nat] [1%nat] [0; 0; 0; 5] [])) = 13 /\
  fst (cgfc RLocal 2 s) = 5 /\ fst (cgfc RNoop 1 s) = 0 /\ sa (snd (cgfc RNoop 1 s)) = [0%nat].
Proof. vm_compute. repeat split; reflexivity. Qed.

(** ** Existence cache (Compose/ExistenceCache.v)
    [sound_hist] unfolds, along a history of decorator calls, direct cache
    calls, backend changes and clock advances, to: whatever a FindMissing /
    RemoveExisting answered from the cache at clock reading t (a requested
    digest not passed on to the backend) has a recording (d, t0) - a backend
    answer "present" obtained by the decorator, or a direct Add - made earlier
    with t0 <= t <= t0 + duration.  All histories, all sizes, all durations. *)
Theorem existence_cache_sound : forall size dur ops,
  sound_hist size dur ops (mkest ec_empty 0%N []) [].
Proof. exact ec_sound. Qed.
Print Assumptions existence_cache_sound.

(** The decorator returns the backend's answer for what it asked. *)
Theorem existence_cache_transparent : forall size dur ds d1 d2 s,
  let ob := fst (estep size dur (EFm ds d1 d2 0%Z) s) in
  exists asked, e_call ob = Some asked /\ e_code ob = 0%Z /\
                e_ans ob = filter (fun d => negb (memn d (backend s))) asked.
Proof. exact efm_transparent. Qed.
Print Assumptions existence_cache_transparent.

(** A composite read through the decorator is the backend's own (the child
    iff the backend holds the parent), the backend is asked for exactly that
    parent, the cache is neither consulted nor changed; a backend failure is
    the result. *)
Theorem existence_cache_composite_read_transparent : forall size dur p s,
  let (ob, s') := estep size dur (EGfc p 0%Z) s in
  e_code ob = (if memn p (backend s) then 0 else 5)%Z /\ e_call ob = Some [p] /\ e_clock ob = [] /\ s' = s.
Proof. exact egfc_transparent. Qed.
Print Assumptions existence_cache_composite_read_transparent.

Theorem existence_cache_composite_read_failure_surfaces : forall size dur p f s,
  f <> 0%Z -> e_code (fst (estep size dur (EGfc p f) s)) = f.
Proof. exact egfc_failure_surfaces. Qed.
Print Assumptions existence_cache_composite_read_failure_surfaces.

(** Non-vacuity: size 1, duration 5.  Object 0 is recorded at time 0, hidden
    at time 5, asked again at time 6; recording object 1 evicts object 0. *)
Example existence_example :
  let ops := [EBackendPut 0; EBackendPut 1; EFm [0%nat] 0 0 0; EBackendDel 0;
              EFm [0%nat] 5 0 0; EFm [0%nat] 1 0 0; EBackendPut 0;
              EFm [0%nat] 0 0 0; EFm [1%nat] 0 0 0; EFm [0%nat; 1%nat] 0 0 0] in
  map (fun o => (e_ans o, e_call o)) (fst (erun 1 5 ops (mkest ec_empty 0%N []))) =
  [([], None); ([], None); ([], Some [0%nat]); ([], None);
   ([], Some []); ([0%nat], Some [0%nat]); ([], None);
   ([], Some [0%nat]); ([], Some [1%nat]); ([], Some [0%nat])].
Proof. vm_compute. reflexivity. Qed.

(** ** LRU set: Insert/Touch move the element to the back of the queue and
    keep the order of the others; Peek/Remove take the front, i.e. the element
    whose last Insert/Touch is the oldest. *)
Theorem lru_touch_moves_to_back : forall v s, lru_ok s -> In v (lq s) ->
  lru_ok (lru_touch v s) /\ lq (lru_touch v s) = remove_nat v (lq s) ++ [v].
Proof. exact lru_touch_spec. Qed.
Print Assumptions lru_touch_moves_to_back.

Theorem lru_insert_appends : forall v s, lru_ok s -> ~ In v (lq s) ->
  lru_ok (lru_insert v s) /\ lq (lru_insert v s) = lq s ++ [v].
Proof. exact lru_insert_spec. Qed.
Print Assumptions lru_insert_appends.

Theorem lru_evicts_front : forall s v r, lru_ok s -> lq s = v :: r ->
  lru_peek s = Some v /\ lru_ok (lru_remove s) /\ lq (lru_remove s) = r.
Proof. exact lru_remove_spec. Qed.
Print Assumptions lru_evicts_front.

(** ** Replicator decorators (Compose/Replicators.v): a transition system over
    any number of callers of ReplicateMultiple with arbitrary (overlapping)
    digest sets; a trace is any sequence of atomic steps - caller starts,
    lock-protected sections of the decorator, backend calls returning with an
    arbitrary injected fault, context cancellations, clock advances.  [run]
    accepts exactly the traces whose steps are enabled, so the theorems hold
    for all interleavings at that granularity. *)

(** Deduplicating: never more than one concurrent copy of the same key. *)
Theorem dedup_at_most_one_copy_per_key : forall sets source sink tr s,
  run MDedup (init_state sets source sink) tr = Some s -> forall k, (copies_of k s <= 1)%nat.
Proof. exact dedup_one_copy_per_key. Qed.
Print Assumptions dedup_at_most_one_copy_per_key.

(** Concurrency-limiting with a semaphore of k permits: never more than k. *)
Theorem limit_at_most_k : forall k sets source sink tr s,
  run (MLimit k) (init_state sets source sink) tr = Some s -> (copies s <= k)%nat.
Proof. exact limit_at_most_k_copies. Qed.
Print Assumptions limit_at_most_k.

(** Queued (one token): never more than one. *)
Theorem queued_at_most_one : forall size dur sets source sink tr s,
  run (MQueued size dur) (init_state sets source sink) tr = Some s -> (copies s <= 1)%nat.
Proof. exact queued_at_most_one_copy. Qed.
Print Assumptions queued_at_most_one.

(** Non-vacuity: two callers for key 0; the second waits while the first
    copies (one copy in progress); the first fails in sink.Put, the waiter
    retries, becomes the leader and copies itself. *)
Example dedup_example :
  let tr := [EStart 0; ETau 0 false; EStart 1; ETau 1 false; ERel 0 0; ERel 0 0] in
  (match run MDedup (init_state [[0%nat]; [0%nat]] [0%nat] []) tr with
   | Some s => (copies_of 0 s, map tpc (thr s))
   | None => (7%nat, [])
   end) = (1%nat, [Put 0 0 [] 0; Wait 0 0]) /\
  (match run MDedup (init_state [[0%nat]; [0%nat]] [0%nat] [])
             (tr ++ [ERel 0 14; ETau 0 false; ETau 0 false; ETau 1 false; ETau 1 false; ERel 1 0]) with
   | Some s => (copies_of 0 s, map tpc (thr s))
   | None => (7%nat, [])
   end) = (1%nat, [Done 14; Get 0 [] 1]).
Proof. vm_compute. split; reflexivity. Qed.

(** [success_justified].  History variables ([gstep], a function of pre-state
    and step): [GAsk i k e] - caller i asked for key k and found or created
    in-flight entry e; [GJust e] - e's owner saw the sink answer "present" for
    its key or its copy into the sink completed; [GSucc i k e] - caller i is
    told success for k on the strength of e (it owned e, or waited for e and
    read success = true).  Every reported success is preceded in the trace by
    the caller's own request that found/created e AND by a sink-present
    observation or completed copy belonging to e; and e was registered in the
    in-flight map when the caller asked.  This is the strongest statement
    true of the algorithm: the justification may precede the request (a
    leader's FindMissing can have returned just before a waiter arrived,
    while the leader had not yet unregistered); for sinks whose contents only
    grow during the run it implies "found in, or copied to, the sink after the
    caller asked".  The literal reading is NOT a theorem of this algorithm and
    is not claimed. *)
Theorem success_justified : forall sets source sink tr s log,
  grun (init_state sets source sink) tr [] = Some (s, log) ->
  forall l1 l2 i k e, log = l1 ++ GSucc i k e :: l2 -> In (GJust e) l2 /\ In (GAsk i k e) l2.
Proof. exact dedup_success_justified. Qed.
Print Assumptions success_justified.

Theorem success_justified_entry_registered_when_asked : forall s ev s' i k e,
  step MDedup s ev = Some s' -> In (GAsk i k e) (gstep s ev) -> lookup_key k (inflight s') = Some e.
Proof. exact ask_registered. Qed.
Print Assumptions success_justified_entry_registered_when_asked.

(** Non-vacuity: caller 1 waits for caller 0's copy and is told success;
    the log (newest first) shows request, justification, successes. *)
Example success_example :
  let tr := [EStart 0; ETau 0 false; EStart 1; ETau 1 false; ERel 0 0; ERel 0 0; ERel 0 0;
             ETau 0 false; ETau 0 false; ETau 1 false] in
  option_map snd (grun (init_state [[0%nat]; [0%nat]] [0%nat] []) tr []) =
  Some [GSucc 1 0 0; GSucc 0 0 0; GJust 0; GAsk 1 0 0; GAsk 0 0 0].
Proof. vm_compute. reflexivity. Qed.

(** ** Existence cache: size bound (down to size 1) and panic-freedom.
    Through any history, the number of cached entries never exceeds the
    configured size, the LRU queue holds exactly the cached keys without
    duplicates, and Peek/Remove are never applied to an empty queue. *)
Theorem existence_cache_bounded : forall size dur ops, (1 <= size)%nat ->
  forall s, ecinv (cache s) -> (length (times (cache s)) <= size)%nat ->
  let s' := snd (erun size dur ops s) in
  ecinv (cache s') /\ (length (times (cache s')) <= size)%nat.
Proof. exact ec_bounded. Qed.
Print Assumptions existence_cache_bounded.

Theorem existence_cache_never_panics : forall size dur ops, (1 <= size)%nat ->
  lpanic (elru (cache (snd (erun size dur ops (mkest ec_empty 0%N []))))) = false.
Proof. exact ec_no_panic. Qed.
Print Assumptions existence_cache_never_panics.

(** ** The monitor used on implementation traces never fires on the model.

    [mon17 inp obs] (Run/R17Proofs.v: the dispatch of [judge17] on the case
    kind, applied to the monitors [mon_seq], [mon_ec], [mon_conc], [mon_lru]
    of Run/R17.v, Run/R17Conc.v) is the property as a decidable check on what
    the implementation was observed to do; [run17 inp] is the model's output
    ([run_seq], [run_ec], [run_lru]); [agree17 inp obs] is the agreement bit of
    [judge17].

    SEQUENTIAL case kinds (0: read-caching / read-fallback composites, 1:
    existence cache, 3: LRU set): for EVERY input - no well-formedness
    hypothesis at all: decoders clamp, the monitors compare decoded values with
    values the model encoded itself, an existence cache of size 0 panics in the
    model at its first recording and the monitors do not judge panics - all
    clauses (1-10 and 15 - composites incl. composite reads -, 11-13 and 16 -
    existence cache incl. composite reads -, 14) are silent on the model's
    output, which is the only observation the judge accepts for these kinds.
    For kind 2, [run17] is the placeholder [L []] (there is no single model
    output); the statements about kind 2 follow below. *)
From BBS Require Import Run.R17Conc Run.R17 Run.R17Proofs.

Theorem monitor_silent_on_model : forall inp, mon17 inp (run17 inp) = [].
Proof. exact mon17_silent_on_model. Qed.
Print Assumptions monitor_silent_on_model.

Theorem monitor_silent_on_agreeing_observation_sequential : forall inp obs,
  sx_Z (sx_nth inp 0) <> 2 -> agree17 inp obs = true -> mon17 inp obs = [].
Proof. exact mon17_silent_on_agreeing_sequential. Qed.
Print Assumptions monitor_silent_on_agreeing_observation_sequential.

Theorem model_output_is_accepted : forall inp,
  sx_Z (sx_nth inp 0) = 0 \/ sx_Z (sx_nth inp 0) = 1 \/ sx_Z (sx_nth inp 0) = 3 ->
  agree17 inp (run17 inp) = true.
Proof. exact model_output_agrees. Qed.
Print Assumptions model_output_is_accepted.

(** Non-vacuity: a read-fallback history over a deduplicating local
    replicator (a read-through, a read with an injected sink failure, an
    upload, a FindMissing, a NOT_FOUND); an existence-cache history of size 1
    and duration 5 (hit, expiry, failing backend, direct calls); an LRU
    history. *)
Example monitor_silent_examples :
  (let inp := L [A 0; A 1; L [A 2; A 0]; L [A 0]; L [A 1; A 2];
                 L [L [A 0; A 1; L []]; L [A 0; A 2; L [A 0; A 0; A 14]]; L [A 1; A 3; L []];
                    L [A 2; L [A 0; A 3; A 4; A 2]; L []]; L [A 0; A 4; L []]]] in
   map (fun o => sx_Z (sx_nth o 0)) (sx_list (run17 inp)) = [0; 14; 0; 0; 5]
   /\ sx_nth (sx_nth (run17 inp) 3) 1 = L [A 4]
   /\ agree17 inp (run17 inp) = true /\ mon17 inp (run17 inp) = [])
  /\ (let inp := L [A 1; A 1; A 5;
                L [L [A 3; A 0]; L [A 3; A 1]; L [A 0; L [A 0]; A 0; A 0; A 0]; L [A 4; A 0];
                   L [A 0; L [A 0]; A 5; A 0; A 0]; L [A 0; L [A 0]; A 1; A 0; A 0];
                   L [A 0; L [A 0; A 1]; A 0; A 0; A 14]; L [A 1; L [A 0; A 1]; A 0]; L [A 2; L [A 1]; A 0]]] in
      map (fun o => sx_nth o 2) (sx_list (run17 inp)) =
        [L []; L []; L [L [A 0]]; L []; L [L []]; L [L [A 0]]; L [L [A 0; A 1]]; L []; L []]
      /\ agree17 inp (run17 inp) = true /\ mon17 inp (run17 inp) = [])
  /\ (let inp := L [A 3; L [L [A 0; A 5]; L [A 0; A 7]; L [A 2]; L [A 1; A 5]; L [A 2]; L [A 3]; L [A 2]]] in
      run17 inp = L [L [A 5; A 7; A 5]] /\ agree17 inp (run17 inp) = true /\ mon17 inp (run17 inp) = []).
Proof. exact (conj seq_example (conj ec_example lru_example)). Qed.

(** Non-vacuity for the composite reads (GetFromComposite): read caching over
    the deduplicating local replicator (from fast; read-through with five
    backend calls, the parent in fast afterwards; failing sink Put; failing
    fast backend; absent parent), read fallback with the "Primary" /
    "Secondary" prefixes, and an existence cache whose FindMissing is answered
    from the cache while the composite read is the backend's NOT_FOUND. *)
Example monitor_silent_examples_composite_reads :
  (let inp := L [A 0; A 0; L [A 2; A 0]; L [A 0]; L [A 1; A 2];
                 L [L [A 3; A 0; L []]; L [A 3; A 1; L []]; L [A 3; A 1; L []]; L [A 3; A 2; L [A 0; A 0; A 0; A 14]];
                    L [A 3; A 2; L [A 13]]; L [A 3; A 4; L []]]] in
   map (fun o => sx_Z (sx_nth o 0)) (sx_list (run17 inp)) = [0; 0; 0; 14; 13; 5]
   /\ map (fun o => length (sx_list (sx_nth o 2))) (sx_list (run17 inp)) = [1; 5; 1; 4; 1; 4]%nat
   /\ sx_nth (sx_nth (run17 inp) 1) 3 = L [A 0; A 1]
   /\ agree17 inp (run17 inp) = true /\ mon17 inp (run17 inp) = [])
  /\ (let inp := L [A 0; A 1; A 0; L []; L [A 1];
                 L [L [A 3; A 1; L [A 14]]; L [A 3; A 1; L [A 0; A 14]]; L [A 3; A 1; L [A 0; A 0; A 0; A 5]];
                    L [A 0; A 1; L [A 5; A 2]]; L [A 3; A 1; L []]]] in
      map (fun o => (sx_Z (sx_nth o 0), sx_Z (sx_nth o 5))) (sx_list (run17 inp)) = [(14, 1); (14, 2); (13, 2); (2, 2); (0, 0)]
      /\ agree17 inp (run17 inp) = true /\ mon17 inp (run17 inp) = [])
  /\ (let inp := L [A 1; A 1; A 5;
                L [L [A 3; A 0]; L [A 0; L [A 0]; A 0; A 0; A 0]; L [A 4; A 0]; L [A 0; L [A 0]; A 1; A 0; A 0];
                   L [A 5; A 0; A 0]; L [A 3; A 0]; L [A 5; A 0; A 0]; L [A 5; A 0; A 14]]] in
      map (fun o => (sx_Z (sx_nth o 0), sx_nth o 2)) (sx_list (run17 inp)) =
        [(0, L []); (0, L [L [A 0]]); (0, L []); (0, L [L []]); (5, L [L [A 0]]); (0, L []); (0, L [L [A 0]]); (14, L [L [A 0]])]
      /\ agree17 inp (run17 inp) = true /\ mon17 inp (run17 inp) = []).
Proof. exact seq_gfc_example. Qed.

(** The monitor's clauses about composite reads DO fire on observations that
    break them (it is not vacuously silent): read caching, parent 5 only in
    the fast backend, answered NOT_FOUND after asking the slow backend
    (clause 9); parent 3 only in the slow backend, served from there with the
    fast backend still empty afterwards (clause 10) - the two observations
    the real code produces when its composite read starts at the slow
    backend. *)
Example monitor_fires_on_bypassed_cache :
  mon17 (L [A 0; A 0; A 0; L [A 5]; L []; L [L [A 3; A 5; L []]]])
        (L [L [A 5; L []; L [L [A 1; A 3; L [A 5]; A 0]; L [A 1; A 0; L [A 5]; A 0]; L [A 0; A 1; L [A 5]; A 0]]; L [A 5]; L []; A 0]]) = [9]
  /\ mon17 (L [A 0; A 0; A 0; L []; L [A 3]; L [L [A 3; A 3; L []]]])
           (L [L [A 0; L []; L [L [A 1; A 3; L [A 3]; A 0]]; L []; L [A 3]; A 0]]) = [10].
Proof. vm_compute. split; reflexivity. Qed.

(** CONCURRENT case kind (2: deduplicating / concurrency-limiting / queued
    replicator under gated schedules).  The judge accepts a SET of
    observations: every model state reachable by running the lock-protected
    sections to quiescence in any order that shows the observed statuses,
    maxima and sink contents.  [mon_conc] is, clause group by clause group,
    [mon_conc_counts ++ mon_conc_success]:

    - clauses 21/22/23 (more concurrent copies per key than one / overall than
      the configured limit / than one) are silent on EVERY observation the
      judge accepts, for every input.  (Proof: every state the judge keeps is
      reachable in the transition system, Run/R17Proofs.v; the maxima the
      harness reports are bounded on every reachable state,
      Compose/MonSilentRepl.v, from the invariants behind
      [dedup_at_most_one_copy_per_key], [limit_at_most_k],
      [queued_at_most_one].)
    - clauses 24/25 (success without justification) are evaluated on the
      harness's event log (obs[4]).  The judge's agreement test does not read
      the log, so "accepted => silent" does not hold for an arbitrary log:
      [monitor_domain_boundary] below gives an accepted observation with a
      made-up log on which clause 24 fires.  They are silent on the log of
      every trace of the model ([tlog], Compose/EventLog.v): see "Clauses
      24 / 25" below; [success_justified] above is the statement on the
      model's own history variables. *)
Theorem monitor_conc_is_counts_then_success : forall inp obs,
  mon_conc inp obs = if sx_eqb obs (L [A (-1)]) then [] else mon_conc_counts inp obs ++ mon_conc_success inp obs.
Proof. exact mon_conc_split. Qed.
Print Assumptions monitor_conc_is_counts_then_success.

(** Hypothesis-free form: [run_conc] is the agreement test [judge_conc] uses. *)
Theorem monitor_counts_silent_whenever_run_conc_accepts : forall inp obs,
  fst (run_conc inp obs) = true -> mon_conc_counts inp obs = [].
Proof. exact conc_counts_silent_run_conc. Qed.
Print Assumptions monitor_counts_silent_whenever_run_conc_accepts.

(** The same through [judge17]'s agreement bit ("kind = 2" only selects the
    branch of [judge17] in which that bit is [run_conc]'s). *)
Theorem monitor_silent_on_agreeing_observation_concurrent_counts : forall inp obs,
  sx_Z (sx_nth inp 0) = 2 -> agree17 inp obs = true -> mon_conc_counts inp obs = [].
Proof. exact conc_counts_silent_on_agreeing. Qed.
Print Assumptions monitor_silent_on_agreeing_observation_concurrent_counts.

(** The agreement test for kind 2 is a function of obs[0..3] (statuses per
    round, maxima, sink contents): the event log obs[4], on which the clauses
    24/25 are evaluated, is not constrained by it. *)
Theorem judge_agreement_ignores_event_log : forall inp o0 o1 o2 o3 lg lg',
  sx_Z (sx_nth inp 0) = 2 ->
  agree17 inp (L [o0; o1; o2; o3; lg]) = agree17 inp (L [o0; o1; o2; o3; lg']).
Proof. exact agreement_ignores_log. Qed.
Print Assumptions judge_agreement_ignores_event_log.

(** The bound behind it, for every trace of the transition system. *)
Theorem reported_maxima_bounded : forall m sets source sink tr s,
  run m (init_state sets source sink) tr = Some s ->
  match m with
  | MDedup => (maxkey s <= 1)%nat
  | MLimit k => (maxall s <= k)%nat
  | MQueued _ _ => (maxall s <= 1)%nat
  end.
Proof. exact Compose.MonSilentRepl.maxima_bounded. Qed.
Print Assumptions reported_maxima_bounded.

(** Domain boundary.  The hypothesis "kind <> 2" of
    [monitor_silent_on_agreeing_observation_sequential] is necessary: a
    kind-2 input, an observation the judge accepts (no events, one caller not
    started) and a made-up log "caller 0 starts, caller 0 returns OK" - clause
    24 fires.  The harness derives the log from the real run and cannot
    produce this pair; the point is that agreement does not constrain the log.
    Also shown: an existence cache of size 0 (rejected by harness/c17.go, which
    demands 1..64) is inside the domain of the theorem - the model panics at
    the first recording and the monitor does not judge panics. *)
Example monitor_domain_boundary :
  (let inp := L [A 2; L [A 0]; L [L [A 0]]; L [A 0]; L []; L []] in
   let obs := L [L []; A 0; A 0; L []; L [L [A 0; A 0; A 0]; L [A 3; A 0; A 0; A 0]]] in
   agree17 inp obs = true /\ mon17 inp obs = [24] /\ mon_conc_counts inp obs = [])
  /\ (let inp := L [A 1; A 0; A 5; L [L [A 3; A 0]; L [A 0; L [A 0]; A 0; A 0; A 0]]] in
      run17 inp = L [A (-1)] /\ mon17 inp (run17 inp) = [])
  /\ (* [model_output_is_accepted] needs a kind in {0, 1, 3}: an unknown kind is
        never accepted, and kind 2 has only the placeholder output *)
     (agree17 (L [A 4]) (run17 (L [A 4])) = false
      /\ let inp := L [A 2; L [A 0]; L [L [A 0]]; L [A 0]; L []; L [L [A 0; A 0]]] in
         agree17 inp (run17 inp) = false).
Proof.
  refine (conj conc_success_clauses_not_determined_by_agreement (conj ec_size0_example _)).
  vm_compute. split; reflexivity.
Qed.

(** Non-vacuity for kind 2: two callers of the deduplicating replicator for
    the same object, the second waits while the first copies; the judge
    accepts the observation and no clause fires. *)
Example monitor_silent_example_concurrent :
  let inp := L [A 2; L [A 0]; L [L [A 0]; L [A 0]]; L [A 0]; L [];
                L [L [A 0; A 0]; L [A 0; A 1]; L [A 1; A 0; A 0]; L [A 1; A 0; A 0]; L [A 1; A 0; A 0]]] in
  let obs := L [L [L [L [A 1; A 0; A 2; L [A 0]]; L [A 0]];
                   L [L [A 1; A 0; A 2; L [A 0]]; L [A 2]];
                   L [L [A 1; A 1; A 0; L [A 0]]; L [A 2]];
                   L [L [A 1; A 0; A 1; L [A 0]]; L [A 2]];
                   L [L [A 3; A 0]; L [A 3; A 0]]];
                A 1; A 1; L [A 0]; L []] in
  agree17 inp obs = true /\ mon17 inp obs = [].
Proof. exact conc_example. Qed.

(** ** Clauses 24 / 25 (success reported only with justification) on the event
    log of EVERY trace of the model.

    The judge for kind 2 accepts an observation iff its statuses, maxima and
    sink are those of a state the model's transition system reaches; it does
    not read the event log (above).  The transition system has no log of its
    own; Compose/EventLog.v says which harness events a step emits ([tlog m s
    tr]: start; return of the backend call a caller is released from, with
    the backend's answer; arrival in the next backend call; the caller's own
    return), and Run/R17LogExamples.v checks on five schedules replayed on the
    real decorators that [tlog] of the corresponding trace IS the recorded log,
    event for event.  The theorems are by induction over ALL traces (any
    number of callers, any interleaving of the atomic steps, any faults,
    cancellations, clock advances): no hypothesis but "tr is a trace". *)
From BBS Require Import Compose.EventLog Run.R17LogBase Run.R17LogDedup
  Run.R17LogOrder Run.R17LogMon Run.R17LogExamples.

(** Clause 24, deduplicating replicator: a caller that returned OK has, for
    every object of its set, a justifying event (sink.FindMissing reporting it
    present / a successful sink.Put) by a caller whose next event comes after
    the asking caller's start. *)
Theorem clause24_silent_on_every_dedup_trace : forall sets source sink tr s,
  run MDedup (init_state sets source sink) tr = Some s ->
  clause24_ok sets (tlog MDedup (init_state sets source sink) tr).
Proof. exact dedup_clause24. Qed.
Print Assumptions clause24_silent_on_every_dedup_trace.

(** Clause 24, concurrency-limiting replicator. *)
Theorem clause24_silent_on_every_limit_trace : forall lim sets source sink tr s,
  run (MLimit lim) (init_state sets source sink) tr = Some s ->
  clause24_ok sets (tlog (MLimit lim) (init_state sets source sink) tr).
Proof. exact limit_clause24. Qed.
Print Assumptions clause24_silent_on_every_limit_trace.

(** Clause 25, queued replicator: for every object some caller put it into
    the sink and returned OK at a clock reading no more than [dur] before the
    asking caller's start. *)
Theorem clause25_silent_on_every_queued_trace : forall size dur sets source sink tr s,
  run (MQueued size dur) (init_state sets source sink) tr = Some s ->
  clause25_ok dur sets (tlog (MQueued size dur) (init_state sets source sink) tr).
Proof. exact queued_clause25. Qed.
Print Assumptions clause25_silent_on_every_queued_trace.

(** In the monitor's own terms: the success clauses of [mon_conc] on an
    observation whose log is the log of a trace (whatever its other fields). *)
Theorem monitor_success_clauses_silent_on_every_trace : forall inp m sets source sink evs o0 o1 o2 o3 tr s,
  conc_cfg inp = (m, sets, source, sink, evs) ->
  run m (init_state sets source sink) tr = Some s ->
  mon_conc_success inp (L [o0; o1; o2; o3; L (tlog m (init_state sets source sink) tr)]) = [].
Proof. exact conc_success_silent_on_trace. Qed.
Print Assumptions monitor_success_clauses_silent_on_every_trace.

(** The whole kind-2 monitor (21/22/23 and 24/25) on what the model shows
    along a trace: maxima and sink of the state reached, log of the trace. *)
Theorem monitor_conc_silent_on_every_trace : forall inp m sets source sink evs rounds tr s,
  conc_cfg inp = (m, sets, source, sink, evs) ->
  run m (init_state sets source sink) tr = Some s ->
  mon_conc inp (L [rounds; of_nat (maxkey s); of_nat (maxall s); of_nats (snk s);
                   L (tlog m (init_state sets source sink) tr)]) = [].
Proof. exact mon_conc_silent_on_trace. Qed.
Print Assumptions monitor_conc_silent_on_every_trace.

(** "Agree implies no violation", all clauses, kind 2: an observation the
    judge accepts, carrying the log of ANY trace of the model, is still
    accepted and raises no clause.  Together with
    [monitor_silent_on_agreeing_observation_sequential] (kinds 0, 1, 3) this
    covers every kind; the hypothesis on the log cannot be dropped
    ([monitor_domain_boundary]). *)
Theorem monitor_silent_on_agreeing_observation_concurrent_with_model_log :
  forall inp obs m sets source sink evs tr s,
  sx_Z (sx_nth inp 0) = 2 -> agree17 inp obs = true ->
  conc_cfg inp = (m, sets, source, sink, evs) ->
  run m (init_state sets source sink) tr = Some s ->
  let obs' := L [sx_nth obs 0; sx_nth obs 1; sx_nth obs 2; sx_nth obs 3; L (tlog m (init_state sets source sink) tr)] in
  agree17 inp obs' = true /\ mon17 inp obs' = [].
Proof. exact mon17_silent_on_accepted_with_model_log. Qed.
Print Assumptions monitor_silent_on_agreeing_observation_concurrent_with_model_log.

(** The order in which the log lines are written.  The model emits the events
    of one atomic step contiguously; the harness's goroutines write their own
    lines, so when one caller's lock-protected section wakes another, the
    lines the two write next may come in either order.  Start events are
    written by the scheduler at quiescent points - no line moves across one -
    and every caller's own lines keep their order.  [same_run lg lg']: the
    per-caller subsequences of lg' are those of lg; the start events of either
    are at the same positions in the other, with the same number of lines of
    every caller before them.  It is reflexive and transitive and contains
    every swap of two adjacent non-start lines of different callers, hence
    every sequence of such swaps; clauses 24 and 25 are invariant under it
    (24 via: "justified after st" holds iff some caller's m-th line justifies
    and that caller has at most m+1 lines up to position st). *)
Theorem same_run_is_a_preorder_containing_adjacent_swaps :
  (forall lg, same_run lg lg) /\
  (forall a b c, same_run a b -> same_run b c -> same_run a c) /\
  (forall l1 a b l2, lg_caller a <> lg_caller b -> is_start_ev a = false -> is_start_ev b = false ->
     same_run (l1 ++ a :: b :: l2) (l1 ++ b :: a :: l2)).
Proof. exact (conj same_run_refl (conj same_run_trans same_run_swap)). Qed.
Print Assumptions same_run_is_a_preorder_containing_adjacent_swaps.

Theorem clause24_invariant_under_write_order : forall sets lg lg',
  same_run lg lg' -> clause24_ok sets lg -> clause24_ok sets lg'.
Proof. exact clause24_same_run. Qed.
Print Assumptions clause24_invariant_under_write_order.

Theorem clause25_invariant_under_write_order : forall dur sets lg lg',
  same_run lg lg' -> clause25_ok dur sets lg -> clause25_ok dur sets lg'.
Proof. exact clause25_same_run. Qed.
Print Assumptions clause25_invariant_under_write_order.

(** "Agree implies no violation", all clauses, kind 2, for the log of any
    trace however the lines of a round were ordered. *)
Theorem monitor_silent_on_agreeing_observation_concurrent_any_write_order :
  forall inp obs m sets source sink evs tr s lg',
  sx_Z (sx_nth inp 0) = 2 -> agree17 inp obs = true ->
  conc_cfg inp = (m, sets, source, sink, evs) ->
  run m (init_state sets source sink) tr = Some s ->
  same_run (tlog m (init_state sets source sink) tr) lg' ->
  let obs' := L [sx_nth obs 0; sx_nth obs 1; sx_nth obs 2; sx_nth obs 3; L lg'] in
  agree17 inp obs' = true /\ mon17 inp obs' = [].
Proof. exact mon17_silent_on_accepted_any_write_order. Qed.
Print Assumptions monitor_silent_on_agreeing_observation_concurrent_any_write_order.

(** Instance: the waiter writes "caller 1 returns" before the leader writes
    "caller 0 returns". *)
Example waiter_writes_its_return_first :
  let tr := [EStart 0; ETau 0 false; EStart 1; ETau 1 false; ERel 0 0; ERel 0 0; ERel 0 0;
             ETau 0 false; ETau 0 false; ETau 1 false] in
  let lg := tlog MDedup (init_state [[0%nat]; [0%nat]] [0%nat] []) tr in
  let l1 := firstn 8 lg in
  let a := L [A 3; A 0; A 0; A 0] in
  let b := L [A 3; A 1; A 0; A 0] in
  lg = l1 ++ [a; b] /\ same_run lg (l1 ++ [b; a])
  /\ mon17 (L [A 2; L [A 0]; L [L [A 0]; L [A 0]]; L [A 0]; L []; L []]) (L [L []; A 1; A 1; L [A 0]; L (l1 ++ [b; a])]) = [].
Proof. exact dedup_waiter_writes_its_return_first. Qed.

(** Non-vacuity, and the tie of [tlog] to the real code: the log of the trace
    that follows the schedule is the log the harness recorded from the real
    deduplicating replicator (two callers, the waiter is told OK on the
    strength of the leader's copy); the monitor is silent on it.  Further
    instances (limiter with a queued caller, queued replicator answering from
    the existence cache after a clock advance, two keys with a failing Get,
    and the case "justified before the waiter started" that only the model
    can schedule) are in Run/R17LogExamples.v. *)
Example model_log_is_the_recorded_log :
  let tr := [EStart 0; ETau 0 false; EStart 1; ETau 1 false; ERel 0 0; ERel 0 0; ERel 0 0;
             ETau 0 false; ETau 0 false; ETau 1 false] in
  let lg := tlog MDedup (init_state [[0%nat]; [0%nat]] [0%nat] []) tr in
  lg = [L [A 0; A 0; A 0];
        L [A 1; A 0; A 0; A 2; L [A 0]; A 0];
        L [A 0; A 1; A 0];
        L [A 2; A 0; A 0; A 2; L [A 0]; A 0; L [A 0]; A 0];
        L [A 1; A 0; A 1; A 0; L [A 0]; A 0];
        L [A 2; A 0; A 1; A 0; L [A 0]; A 0; L []; A 0];
        L [A 1; A 0; A 0; A 1; L [A 0]; A 0];
        L [A 2; A 0; A 0; A 1; L [A 0]; A 0; L []; A 0];
        L [A 3; A 0; A 0; A 0];
        L [A 3; A 1; A 0; A 0]]
  /\ mon17 (L [A 2; L [A 0]; L [L [A 0]; L [A 0]]; L [A 0]; L []; L []]) (L [L []; A 1; A 1; L [A 0]; L lg]) = [].
Proof. exact dedup_log_is_the_recorded_log. Qed.

Example justified_before_the_waiter_started :
  let tr := [EStart 0; ETau 0 false; ERel 0 0; EStart 1; ETau 1 false; ETau 0 false; ETau 0 false; ETau 1 false] in
  let lg := tlog MDedup (init_state [[0%nat]; [0%nat]] [] [0%nat]) tr in
  map lg_kind lg = [0; 1; 2; 0; 3; 3]
  /\ map lg_caller lg = [0; 0; 0; 1; 0; 1]%nat
  /\ mon17 (L [A 2; L [A 0]; L [L [A 0]; L [A 0]]; L []; L [A 0]; L []]) (L [L []; A 0; A 0; L [A 0]; L lg]) = [].
Proof. exact dedup_justified_before_the_waiter_started. Qed.
