(** C14P — sub-check of C14: client <-> server uploads that fail at the END
    of the ByteStream.Write RPC.

    "A ByteStream Write stores an object only if ... the concatenated (for
    compressed uploads: decompressed) data matches the digest in the resource
    name; in every other case the RPC fails and nothing becomes visible" and
    "A client and server of this repository connected back to back behave
    like the backend they front" — for uploads whose verdict exists only as
    the final status of the RPC: the backend's Put fails after it consumed
    the upload, or the server-side validation rejects data the client sent
    in good faith (a buffer without a client-side digest check).

    Model: Run/R14P.v.  [pair_put]: what the client sends for ANY bytes, the
    server's Write of Rpc/ByteStream.v, an armed backend (fm 0: none, 1: fail
    after consuming, 2 / 3: fail before / while reading), the client returning
    the RPC's final status.  Reference [backend_put]: the same armed backend
    handed a CAS buffer of the same digest and data directly.  All theorems
    hold for every hash function and every codec with
    decompress (compress x) = DOk x, every chunk size >= 1, every cutting of
    the compressed stream, every state of the backend. *)
From Coq Require Import List ZArith Bool Lia.
From BBS Require Import Common.Sx Rpc.ByteStream Rpc.Batch Rpc.ClientServer Run.R14 Run.R14P Run.R14PProofs.
Import ListNotations.
Open Scope Z_scope.

(** a Put through the pair returns OK iff the data matches the digest and the
    backend accepted the upload (it was not armed) *)
Theorem put_ok_iff_valid_and_accepted :
  forall hashf decompress compress, (forall x, decompress (compress x) = DOk x) ->
  forall zstd chunk pieces st d x fm code,
  (0 < chunk)%nat -> 0 <= d_size d -> blen x <= backend_max -> fault_wf fm code ->
  (snd (pair_put hashf decompress compress zstd chunk pieces st d x fm code) = 0
   <-> valid hashf d x = true /\ fm = 0).
Proof. exact pair_put_ok_iff. Qed.
Print Assumptions put_ok_iff_valid_and_accepted.

(** ... and then exactly the data is stored under exactly the digest *)
Theorem ok_put_stores_the_data :
  forall hashf decompress compress, (forall x, decompress (compress x) = DOk x) ->
  forall zstd chunk pieces st d x fm code,
  (0 < chunk)%nat -> 0 <= d_size d -> blen x <= backend_max -> fault_wf fm code ->
  snd (pair_put hashf decompress compress zstd chunk pieces st d x fm code) = 0 ->
  fst (pair_put hashf decompress compress zstd chunk pieces st d x fm code) = st_put st d x.
Proof. exact pair_put_ok_stores. Qed.
Print Assumptions ok_put_stores_the_data.

(** a failed Put leaves the backend's contents unchanged: nothing becomes visible *)
Theorem failed_put_changes_nothing :
  forall hashf decompress compress, (forall x, decompress (compress x) = DOk x) ->
  forall zstd chunk pieces st d x fm code,
  (0 < chunk)%nat -> 0 <= d_size d -> blen x <= backend_max -> fault_wf fm code ->
  snd (pair_put hashf decompress compress zstd chunk pieces st d x fm code) <> 0 ->
  fst (pair_put hashf decompress compress zstd chunk pieces st d x fm code) = st.
Proof. exact pair_put_failed_unchanged. Qed.
Print Assumptions failed_put_changes_nothing.

(** one upload: the pair returns the code and leaves the contents the armed
    backend itself would — the backend's code on a backend failure,
    INVALID_ARGUMENT for data not matching the digest *)
Theorem pair_put_behaves_like_backend :
  forall hashf decompress compress, (forall x, decompress (compress x) = DOk x) ->
  forall zstd chunk pieces st d x fm code,
  (0 < chunk)%nat -> 0 <= d_size d -> blen x <= backend_max -> fault_wf fm code ->
  pair_put hashf decompress compress zstd chunk pieces st d x fm code = backend_put hashf st d x fm code.
Proof. exact pair_put_is_backend_put. Qed.
Print Assumptions pair_put_behaves_like_backend.

(** the Write RPC over an unarmed backend for ANY bytes handed to the client:
    OK and stored iff they match the digest; INVALID_ARGUMENT and nothing stored otherwise *)
Theorem write_of_unchecked_upload :
  forall hashf decompress compress, (forall x, decompress (compress x) = DOk x) ->
  forall zstd chunk pieces d x,
  (0 < chunk)%nat -> 0 <= d_size d -> blen x <= backend_max ->
  let r := write hashf decompress 0 (pair_rn zstd d) (pair_msgs compress zstd chunk pieces x) TEof in
  if valid hashf d x then wr_code r = 0 /\ wr_stored r = Some x
  else wr_code r = cInvalidArgument /\ wr_stored r = None.
Proof. exact pair_write_spec. Qed.
Print Assumptions write_of_unchecked_upload.

(** whole histories of Put / Get / FindMissing, from any state: the pair
    gives the results and the final contents of the armed backend used directly *)
Theorem pair_behaves_like_backend :
  forall hashf decompress compress, (forall x, decompress (compress x) = DOk x) ->
  forall blobs zstd chunk, (0 < chunk)%nat ->
  forall ops st, Forall (op_wf14P blobs) ops ->
  p_ops blobs (pair_put hashf decompress compress zstd chunk []) (pair_get hashf decompress compress zstd chunk) st ops
  = p_ops blobs (backend_put hashf) (direct_get hashf) st ops.
Proof. exact p_ops_pair_backend. Qed.
Print Assumptions pair_behaves_like_backend.

(** the judge's model (run14P) is the reference (run14P_backend) on every well-formed case *)
Theorem model_of_pair_is_backend : forall inp, inp_wf14P inp -> run14P inp = run14P_backend inp.
Proof. exact run14P_is_backend. Qed.
Print Assumptions model_of_pair_is_backend.

(** the monitor never fires on the model (all histories; hypotheses: chunk >= 1,
    Put sizes >= 0 and data <= 1 MiB, faults armed with a non-OK code, Get
    sizes <= 1 MiB, FindMissing sizes >= 0) and the judge accepts the model's output *)
Theorem mon14P_silent_on_model : forall inp, inp_wf14P inp -> mon14P inp (run14P inp) = [].
Proof. exact R14PProofs.mon14P_silent_on_model. Qed.
Print Assumptions mon14P_silent_on_model.

Theorem model_outcome_is_accepted_p : forall inp, agree14P inp (run14P inp) (run14P inp) = true.
Proof. exact agree14P_model. Qed.
Print Assumptions model_outcome_is_accepted_p.

(** the seed's demonstration: zstd, the backend's Put of "hello world" fails
    with RESOURCE_EXHAUSTED after consuming the upload; FindMissing; the
    unfaulted Put; Get — plus an upload of another blob's bytes *)
Definition example_history : sx :=
  L [L [of_Zs [104; 101; 108; 108; 111]; of_Zs [104; 101; 108; 108; 112]]; A 1; A 64;
     L [L [A 0; A 0; A 5; A 1; A 8; A 0];
        L [A 2; L [L [A 0; A 5]]];
        L [A 0; A 0; A 5; A 0; A 0; A 1];
        L [A 1; A 0; A 5];
        L [A 0; A 0; A 5; A 0; A 0; A 0];
        L [A 1; A 0; A 5]]].

Example example_history_run :
  inp_wf14P example_history
  /\ run14P example_history =
     L [L [L [A 8; L []; A 8];
           L [A 0; L [L [A 0; A 5]]; A (-1)];
           L [A 3; L []; A 3];
           L [A 5; L []; A (-1)];
           L [A 0; L []; A 0];
           L [A 0; of_Zs [104; 101; 108; 108; 111]; A (-1)]];
        L [L [A 0; A 5; of_Zs [104; 101; 108; 108; 111]]]].
Proof.
  split; [|vm_compute; reflexivity].
  split; [apply Nat.ltb_lt; vm_compute; reflexivity|].
  cbn [example_history sx_nth sx_list nth].
  repeat (apply Forall_cons;
          [unfold op_wf14P, fault_wf; vm_compute; repeat constructor; vm_compute; intuition discriminate|]).
  apply Forall_nil.
Qed.

(** The monitor is not trivially silent: the observation of a client that
    drops the final status of the Write RPC (seeded C14-h: Put returns OK
    although the backend failed with RESOURCE_EXHAUSTED, and although the
    server rejected mismatching data) violates clauses 1 and 4. *)
Example monitor_fires_on_dropped_status :
  mon14P example_history
    (L [L [L [A 0; L []; A 8];
           L [A 0; L [L [A 0; A 5]]; A (-1)];
           L [A 0; L []; A 3];
           L [A 5; L []; A (-1)];
           L [A 0; L []; A 0];
           L [A 0; of_Zs [104; 101; 108; 108; 111]; A (-1)]];
        L [L [A 0; A 5; of_Zs [104; 101; 108; 108; 111]]]]) = [1; 4; 1; 4].
Proof. vm_compute. reflexivity. Qed.

(** ... a client reporting a backend failure with another code violates
    clause 4, a spurious failure clause 2, a blob left behind by a failed
    Put clause 3 *)
Example monitor_fires_on_other_code :
  mon14P (L [L [of_Zs [1; 2]]; A 0; A 1; L [L [A 0; A 0; A 2; A 1; A 8; A 0]]])
         (L [L [L [A 13; L []; A 8]]; L []]) = [4].
Proof. vm_compute. reflexivity. Qed.
Example monitor_fires_on_spurious_failure :
  mon14P (L [L [of_Zs [1; 2]]; A 0; A 1; L [L [A 0; A 0; A 2; A 0; A 0; A 0]]])
         (L [L [L [A 14; L []; A 0]]; L [L [A 0; A 2; of_Zs [1; 2]]]]) = [2; 3].
Proof. vm_compute. reflexivity. Qed.

(** The hypothesis of the monitor theorem is needed: a "fault" armed with
    code OK is no failure; the model then returns OK with nothing stored and
    clause 1 fires on it. *)
Example fault_wf_needed :
  let inp := L [L [of_Zs [1; 2]]; A 0; A 1; L [L [A 0; A 0; A 2; A 1; A 0; A 0]]] in
  mon14P inp (run14P inp) <> [].
Proof. vm_compute. discriminate. Qed.
