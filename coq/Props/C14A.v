(** C14A — sub-check of C14: "a client and server of this repository
    connected back to back behave like the backend they front", for the
    ACTION CACHE (grpcclients.NewACBlobAccess in front of
    grpcservers.NewActionCacheServer), over all digest functions the
    repository supports.  The Action Cache is a map keyed by (instance name,
    digest function, hash, size) and is not content addressed: client∘server
    must be the identity on keys, in particular on the digest function —
    SHA256 / BLAKE3 / SHA256TREE hashes (64 hex digits) and SHA1 / GITSHA1
    hashes (40) cannot be told apart by their length.

    Model: Rpc/ActionCache.v ([server_digest]: NewInstanceName,
    GetDigestFunction with the inference from the hash length when the
    digest_function field is UNKNOWN, NewDigestFromProto; [client_request]:
    the request carries the digest's own function). *)
From Coq Require Import List ZArith Bool.
From BBS Require Import Common.Sx Rpc.ActionCache Rpc.ActionCacheProofs Run.R14A Run.R14AProofs.
Import ListNotations.
Open Scope Z_scope.

(** ** client_server_ac_*: for every set of valid instance names, every
    state of the backend, every well-formed key (valid instance name,
    supported function, hash of that function's length, size >= 0). *)

(** identity on keys: the server derives exactly the key the caller named *)
Theorem client_server_ac_identity_on_keys : forall inst_ok k,
  key_wf inst_ok k = true -> server_digest inst_ok (client_request k) = inr k.
Proof. exact server_digest_wf. Qed.
Print Assumptions client_server_ac_identity_on_keys.

(** Put succeeds, the backend receives one Put of exactly that key, and a
    Get of the same key returns the stored value from exactly that key *)
Theorem client_server_ac_put_get : forall inst_ok st k v,
  key_wf inst_ok k = true ->
  exists st', client_put inst_ok st k v = (st', mkR 0 0 [(false, k)])
    /\ client_get inst_ok st' k = mkR 0 v [(true, k)].
Proof. exact client_server_put_get. Qed.
Print Assumptions client_server_ac_put_get.

(** a write under one key never shows up under another — in particular not
    under the same instance name, hash and size with another digest function *)
Theorem client_server_ac_put_other_key : forall inst_ok st k k' v,
  key_wf inst_ok k = true -> key_wf inst_ok k' = true -> k <> k' ->
  client_get inst_ok (fst (client_put inst_ok st k v)) k' = client_get inst_ok st k'.
Proof. exact client_server_put_other. Qed.
Print Assumptions client_server_ac_put_other_key.

(** a key the backend does not hold is NOT_FOUND, and the backend is asked for that key *)
Theorem client_server_ac_not_found : forall inst_ok st k,
  key_wf inst_ok k = true -> ac_get st k = None ->
  client_get inst_ok st k = mkR cNotFoundAC 0 [(true, k)].
Proof. exact client_server_not_found. Qed.
Print Assumptions client_server_ac_not_found.

(** ** the server's handling of the digest_function field *)

(** any request: the key used keeps instance name, hash and size, is well
    formed, carries the requested function unless that is UNKNOWN, and
    otherwise the function inferred from the hash length *)
Theorem server_key_of_request : forall inst_ok q k,
  server_digest inst_ok q = inr k ->
  key_wf inst_ok k = true /\ k_inst k = k_inst q /\ k_len k = k_len q /\ k_hi k = k_hi q /\ k_size k = k_size q
  /\ (k_fn q <> 0 -> k_fn k = k_fn q) /\ (k_fn q = 0 -> infer_fn (k_len q) = Some (k_fn k)).
Proof. exact server_digest_inr. Qed.
Print Assumptions server_key_of_request.

Theorem server_rejects_with_invalid_argument : forall inst_ok q c,
  server_digest inst_ok q = inl c -> c = cInvalidArgument.
Proof. exact server_digest_inl. Qed.
Print Assumptions server_rejects_with_invalid_argument.

(** inference yields a legacy function (MD5 .. SHA512) of that hash length *)
Theorem inference_is_legacy : forall len f, infer_fn len = Some f -> 1 <= f <= 5 /\ fn_len f = Some len.
Proof. exact infer_fn_legacy. Qed.
Print Assumptions inference_is_legacy.

(** for legacy keys a request without the field means the same key ... *)
Theorem unknown_function_legacy_same_key : forall inst_ok k,
  key_wf inst_ok k = true -> 1 <= k_fn k <= 5 ->
  server_digest inst_ok (mkK (k_inst k) 0 (k_len k) (k_hi k) (k_size k)) = inr k.
Proof. exact unknown_function_same_key. Qed.
Print Assumptions unknown_function_legacy_same_key.

(** ... for BLAKE3, SHA256TREE and GITSHA1 keys it means ANOTHER key: the
    client must send the function (the model's reason for [client_request]) *)
Theorem unknown_function_new_other_key : forall inst_ok k k',
  key_wf inst_ok k = true -> 6 <= k_fn k <= 8 ->
  server_digest inst_ok (mkK (k_inst k) 0 (k_len k) (k_hi k) (k_size k)) = inr k' ->
  k' <> k /\ 1 <= k_fn k' <= 5.
Proof. exact unknown_function_other_key. Qed.
Print Assumptions unknown_function_new_other_key.

(** ** The monitor (Run/R14A.v, mon14A) applied to implementation
    observations is silent on every observation the judge accepts as agreeing
    with the model, and on the model's own output: for all histories.
    Hypothesis: the operations through the client carry well-formed keys (the
    client's argument is a digest.Digest). *)
Theorem monitor_silent_on_agreeing_observation_ac : forall inp obs,
  inp_wf14A inp -> agree14A (run14A inp) obs = true -> mon14A inp obs = [].
Proof. exact mon14A_silent_on_agreeing. Qed.
Print Assumptions monitor_silent_on_agreeing_observation_ac.

Theorem model_outcome_is_accepted_ac : forall inp, agree14A (run14A inp) (run14A inp) = true.
Proof. exact agree14A_model. Qed.
Print Assumptions model_outcome_is_accepted_ac.

Theorem monitor_silent_on_model_ac : forall inp, inp_wf14A inp -> mon14A inp (run14A inp) = [].
Proof. exact mon14A_silent_on_model. Qed.
Print Assumptions monitor_silent_on_model_ac.

(** Put under BLAKE3 (6), Get under BLAKE3, SHA256 (3) and SHA256TREE (7) with
    the same instance name, hash and size; a raw Get without the function
    (inferred: SHA256); a raw Update without the function, read back under
    SHA256; a raw request with a hash length no function has. *)
Definition example_history : sx :=
  L [L [L [A 0; A 1; A 6; A 64; A 0; A 11; A 7];
        L [A 1; A 1; A 6; A 64; A 0; A 11; A 0];
        L [A 1; A 1; A 3; A 64; A 0; A 11; A 0];
        L [A 1; A 1; A 7; A 64; A 0; A 11; A 0];
        L [A 3; A 1; A 0; A 64; A 0; A 11; A 0];
        L [A 2; A 1; A 0; A 64; A 0; A 11; A 9];
        L [A 1; A 1; A 3; A 64; A 0; A 11; A 0];
        L [A 3; A 1; A 0; A 10; A 0; A 11; A 0]]].

Example history_in_domain :
  inp_wf14A example_history
  /\ run14A example_history =
     L [L [L [A 0; A 0; L [L [A 0; A 1; A 6; A 64; A 0; A 11]]];
           L [A 0; A 7; L [L [A 1; A 1; A 6; A 64; A 0; A 11]]];
           L [A 5; A 0; L [L [A 1; A 1; A 3; A 64; A 0; A 11]]];
           L [A 5; A 0; L [L [A 1; A 1; A 7; A 64; A 0; A 11]]];
           L [A 5; A 0; L [L [A 1; A 1; A 3; A 64; A 0; A 11]]];
           L [A 0; A 0; L [L [A 0; A 1; A 3; A 64; A 0; A 11]]];
           L [A 0; A 9; L [L [A 1; A 1; A 3; A 64; A 0; A 11]]];
           L [A 3; A 0; L []]];
        L [L [A 1; A 3; A 64; A 0; A 11; A 9]; L [A 1; A 6; A 64; A 0; A 11; A 7]]].
Proof.
  split; [|vm_compute; reflexivity].
  unfold inp_wf14A. cbn [example_history sx_nth sx_list nth].
  repeat (apply Forall_cons;
          [unfold op_wf14A; intros [H|H]; try (vm_compute in H; discriminate); vm_compute; reflexivity|]).
  apply Forall_nil.
Qed.

(** The monitor is not trivially silent: the observation of a client that
    does not send the digest function (the server files the BLAKE3 result
    under the SHA256 key; Get under BLAKE3 is NOT_FOUND, Get under SHA256
    returns a value never written there) violates clauses 2, 1, 1 and 5. *)
Example monitor_fires_on_dropped_function :
  mon14A (L [L [L [A 0; A 1; A 6; A 64; A 0; A 11; A 7];
                L [A 1; A 1; A 6; A 64; A 0; A 11; A 0];
                L [A 1; A 1; A 3; A 64; A 0; A 11; A 0]]])
    (L [L [L [A 0; A 0; L [L [A 0; A 1; A 3; A 64; A 0; A 11]]];
           L [A 5; A 0; L [L [A 1; A 1; A 6; A 64; A 0; A 11]]];
           L [A 0; A 7; L [L [A 1; A 1; A 3; A 64; A 0; A 11]]]];
        L [L [A 1; A 3; A 64; A 0; A 11; A 7]]]) = [2; 1; 1; 5].
Proof. vm_compute. reflexivity. Qed.

(** The hypothesis of the monitor theorem is needed: a "client" operation
    without a digest function is outside the client's domain; the model
    sends it on, the server infers SHA256, and clause 4 fires on the model. *)
Example wf_needed :
  let inp := L [L [L [A 0; A 1; A 0; A 64; A 0; A 11; A 7]]] in
  mon14A inp (run14A inp) <> [].
Proof. vm_compute. discriminate. Qed.
