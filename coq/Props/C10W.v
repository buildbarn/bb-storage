(** The wiring model of Store/Wiring.v (tied to the real configuration constructor
    by the sub-checks C01W / C05W / C08W) carries C10's theorem to every store the
    constructor builds.  Statement only. *)
From Coq Require Import List NArith ZArith Bool Arith.
From BBS Require Import Common.Sx Store.Model Store.Wf Store.WfTids Store.Wiring Run.RStore Run.R01W Run.R01WProofs.
From BBS Require Props.C04 Props.StoreCombined Store.P04Mon Store.P10Monitor.
Import ListNotations.

(** for every accepted sane hierarchical configuration message: C10's monitor is
    silent on the model of the store the constructor builds, for all well-formed
    schedules *)
Theorem wired_store_satisfies_C10 : forall inp w,
  wired_world inp = Some w -> wiring_sane (dec_wiring (sx_nth inp 0)) = true -> wf_anc w = true ->
  c_hier (w_cfg w) = true ->
  forall es, wf_ops w [] es = true -> wf_tids es = true -> P10Monitor.mon10_model w es = [].
Proof.
  intros inp w W S A H es WO WT.
  exact (Props.StoreCombined.store_model_satisfies_C10 w es (wired_world_wf inp w W S A) WO WT H).
Qed.
Print Assumptions wired_store_satisfies_C10.
