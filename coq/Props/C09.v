(** C09 — CAS buffers never complete a read of content that mismatches its
    digest.  The statements; they rest on the theorems of Buffer/*.v.

    [H] is the hash function of the digest (any function), [cfg] the digest's
    hash and size and the Source's error code.  The validator theorems hold
    over ANY underlying ChunkReader [(S, rd)] — scripted sources, decorated
    readers, and the error-handling reader of C16 alike; [drains rd s bs e s']
    says that reading [s] to its first error yields the chunks [bs] (concatenated)
    and then error [e] (io.EOF = [EEof]); [pulls] is any number of successful reads. *)
From Coq Require Import List ZArith NArith Bool.
From BBS Require Import Common.Sx Buffer.Source Buffer.Validate Buffer.Convert
  Buffer.StreamProofs Buffer.ValidateProofs Buffer.ConvertProofs
  Buffer.ValidateReaderProofs Buffer.ReaderBufferProofs Buffer.ConvertProofs2 Buffer.OtherwiseProofs Run.R09
  Buffer.C09FullValidate Buffer.C09FullCombinators Buffer.C09FullReader Buffer.C09FullChunk
  Buffer.C09FullReaderBuf Buffer.C09FullSizeFirst Buffer.C09FullMonitor Buffer.C09FullExtras
  Buffer.C09FuelLoops Buffer.C09FuelSuffices.
Import ListNotations.
Open Scope N_scope.

(** Completion of the validated stream implies that the complete content has
    exactly the digest's size and hash, and that it is what was handed out. *)
Theorem complete_implies_valid : forall H cfg S (rd : S -> bytes * err * S) fuel u0 out st',
  drains (vcr_read H cfg rd fuel) (vinit cfg u0) out EEof st' ->
  (exists u, drains rd u0 out EEof u) /\ lenN out = g_size cfg /\ g_hash cfg = H out.
Proof. exact vcr_complete_implies_valid. Qed.
Print Assumptions complete_implies_valid.

(** The final portion is withheld: after any number of reads, a consumer of
    an invalid stream holds fewer than [size] bytes (for content shorter than
    the digest's size that is all of it; for an empty digest, nothing). *)
Theorem withhold : forall H cfg S (rd : S -> bytes * err * S) fuel u0 out st',
  pulls (vcr_read H cfg rd fuel) (vinit cfg u0) out st' ->
  ~ valid_stream H cfg rd u0 -> lenN out < g_size cfg \/ out = [].
Proof. exact vcr_withhold. Qed.
Print Assumptions withhold.

(** The integrity callback never reports valid for an invalid stream and
    never invalid for a valid one (in every reachable state, and at the end). *)
Theorem callback_sound : forall H cfg S (rd : S -> bytes * err * S) fuel u0 out st',
  pulls (vcr_read H cfg rd fuel) (vinit cfg u0) out st' ->
  (In true (v_cbs st') -> valid_stream H cfg rd u0) /\
  (In false (v_cbs st') -> ~ valid_stream H cfg rd u0).
Proof. exact vcr_callback_sound. Qed.
Print Assumptions callback_sound.

Theorem callback_sound_at_end : forall H cfg S (rd : S -> bytes * err * S) fuel u0 out e st',
  drains (vcr_read H cfg rd fuel) (vinit cfg u0) out e st' ->
  (In true (v_cbs st') -> valid_stream H cfg rd u0) /\
  (In false (v_cbs st') -> ~ valid_stream H cfg rd u0).
Proof. exact vcr_callback_sound_end. Qed.
Print Assumptions callback_sound_at_end.

(** A failure is the Source's code for an invalid stream, or the source's own
    first I/O error passed through (or the model ran out of fuel). *)
Theorem failure_origin : forall H cfg S (rd : S -> bytes * err * S) fuel u0 out e st',
  drains (vcr_read H cfg rd fuel) (vinit cfg u0) out e st' -> e <> EEof ->
  e = EFuel \/ (e = ECode (g_code cfg) /\ ~ valid_stream H cfg rd u0) \/
  (exists bs u', drains rd u0 bs e u').
Proof. exact vcr_error_origin. Qed.
Print Assumptions failure_origin.

(** Mismatch => error with the Source's code when the source itself ends cleanly. *)
Theorem mismatch_code : forall H cfg S (rd : S -> bytes * err * S) fuel u0 content uend out e st',
  drains rd u0 content EEof uend -> ~ valid_stream H cfg rd u0 ->
  drains (vcr_read H cfg rd fuel) (vinit cfg u0) out e st' ->
  e = ECode (g_code cfg) \/ e = EFuel.
Proof. exact vcr_mismatch_code. Qed.
Print Assumptions mismatch_code.

(** Errors (and io.EOF) are sticky. *)
Theorem sticky : forall H cfg S (rd : S -> bytes * err * S) fuel st c e st',
  vcr_read H cfg rd fuel st = ((c, e), st') -> e <> ENone ->
  c = [] /\ vcr_read H cfg rd fuel st' = (([], e), st').
Proof. exact vcr_sticky. Qed.
Print Assumptions sticky.

(** * casValidatingReader, over ANY underlying io.Reader [(S, rd)] whose
    remaining content is given by [cont] (law [rd_spec]: a read hands out a
    prefix of what is left; an error ends it) and that never returns
    io.ErrUnexpectedEOF itself.  [rdrains]/[rpulls]: reads with arbitrary
    buffer sizes; data returned together with the final error is received. *)
Theorem reader_complete_implies_valid : forall H cfg S (rd : N -> S -> bytes * err * S) fuel cont,
  (forall cap s c e s', rd cap s = ((c, e), s') ->
     match e with ENone => cont s = (c ++ fst (cont s'), snd (cont s')) | _ => cont s = (c, e) end) ->
  (forall cap s c e s', rd cap s = ((c, e), s') -> e <> EUnexp) ->
  forall u0 out st',
  rdrains (vr_read H cfg rd fuel) (vinit cfg u0) out EEof st' ->
  cont u0 = (out, EEof) /\ lenN out = g_size cfg /\ g_hash cfg = H out.
Proof. exact vr_complete_implies_valid. Qed.
Print Assumptions reader_complete_implies_valid.

Theorem reader_withhold : forall H cfg S (rd : N -> S -> bytes * err * S) fuel cont,
  (forall cap s c e s', rd cap s = ((c, e), s') ->
     match e with ENone => cont s = (c ++ fst (cont s'), snd (cont s')) | _ => cont s = (c, e) end) ->
  (forall cap s c e s', rd cap s = ((c, e), s') -> e <> EUnexp) ->
  forall u0 out e st',
  rpulls (vr_read H cfg rd fuel) (vinit cfg u0) out st' \/ rdrains (vr_read H cfg rd fuel) (vinit cfg u0) out e st' ->
  ~ valid_reader H cfg cont u0 -> lenN out < g_size cfg \/ out = [].
Proof. exact vr_withhold. Qed.
Print Assumptions reader_withhold.

Theorem reader_callback_sound : forall H cfg S (rd : N -> S -> bytes * err * S) fuel cont,
  (forall cap s c e s', rd cap s = ((c, e), s') ->
     match e with ENone => cont s = (c ++ fst (cont s'), snd (cont s')) | _ => cont s = (c, e) end) ->
  (forall cap s c e s', rd cap s = ((c, e), s') -> e <> EUnexp) ->
  forall u0 out e st',
  rpulls (vr_read H cfg rd fuel) (vinit cfg u0) out st' \/ rdrains (vr_read H cfg rd fuel) (vinit cfg u0) out e st' ->
  (In true (v_cbs st') -> valid_reader H cfg cont u0) /\ (In false (v_cbs st') -> ~ valid_reader H cfg cont u0).
Proof. exact vr_callback_sound. Qed.
Print Assumptions reader_callback_sound.

Theorem reader_sticky : forall H cfg S (rd : N -> S -> bytes * err * S) fuel st cap d e st',
  vr_read H cfg rd fuel cap st = ((d, e), st') -> e <> ENone ->
  forall cap', vr_read H cfg rd fuel cap' st' = (([], e), st').
Proof. exact vr_sticky. Qed.
Print Assumptions reader_sticky.

(** * The exported constructors: for both stream constructors, every script
    (chunkings, empty chunks, short reads, early EOF, trailing data, errors
    anywhere, EOF/error attached to data or not), every digest and hash
    function, every method but Discard and every parameter (offset, chunk
    size, read sizes, buffer length): the call/stream completes only if the
    script's content ends with EOF and has the digest's size and hash, and the
    consumer then holds exactly the expected slice of it. *)
Theorem chunk_reader_buffer_complete_implies_valid : forall H cfg fuel evs m o,
  m <> MDiscard ->
  cas_chunk_reader H cfg fuel evs m = o -> completed m (o_err o) = true ->
  valid_script H cfg evs /\ o_data o = expected_slice m (fst (content evs)).
Proof. exact chunk_reader_complete_implies_valid. Qed.
Print Assumptions chunk_reader_buffer_complete_implies_valid.

Theorem reader_buffer_complete_implies_valid : forall H cfg fuel evs attach m o,
  m <> MDiscard ->
  cas_reader H cfg fuel evs attach m = o -> completed m (o_err o) = true ->
  valid_script H cfg evs /\ o_data o = expected_slice m (fst (content evs)).
Proof. exact ReaderBufferProofs.reader_complete_implies_valid. Qed.
Print Assumptions reader_buffer_complete_implies_valid.

(** * The model's fuel.  Every consumption loop of the model runs on a fuel
    counter and yields the marker [EFuel] when it runs out; one fuel value is
    handed to every loop.  [script_fuel evs] (= 16 + 4 * (number of events +
    number of bytes in chunks), the value [run09] uses) is enough: for EVERY
    script, digest, hash function, attach flag and method whose loop
    parameters are positive ([good_param]: ToChunkReader's maximum chunk size
    and every ToReader buffer size at least 1), no constructor's outcome is
    [EFuel].  Monotone in the fuel.  (A maximum chunk size 0 makes the
    normalizing reader hand out empty chunks for ever, a zero-length read
    buffer makes no progress either: witnesses [c09_fuel_needs_good_param].) *)
Theorem script_fuel_suffices_chunk_reader : forall H cfg fuel evs m,
  (script_fuel evs <= fuel)%nat -> good_param m = true ->
  o_err (cas_chunk_reader H cfg fuel evs m) <> EFuel.
Proof. exact chunk_fuel_suffices. Qed.
Print Assumptions script_fuel_suffices_chunk_reader.

Theorem script_fuel_suffices_reader : forall H cfg fuel evs attach m,
  (script_fuel evs <= fuel)%nat -> good_param m = true ->
  o_err (cas_reader H cfg fuel evs attach m) <> EFuel.
Proof. exact reader_fuel_suffices. Qed.
Print Assumptions script_fuel_suffices_reader.

(** NewCASBufferFromByteSlice: fuel above the length of the data; in particular
    [script_fuel] of a script whose content the data is. *)
Theorem script_fuel_suffices_byte_slice : forall H cfg fuel data m,
  (length data < fuel)%nat -> good_param m = true ->
  o_err (cas_byte_slice H cfg fuel data m) <> EFuel.
Proof. exact byte_slice_fuel_suffices. Qed.
Print Assumptions script_fuel_suffices_byte_slice.

Theorem script_fuel_suffices_byte_slice_of_script : forall H cfg fuel evs m,
  (script_fuel evs <= fuel)%nat -> good_param m = true ->
  o_err (cas_byte_slice H cfg fuel (fst (content evs)) m) <> EFuel.
Proof. exact byte_slice_script_fuel_suffices. Qed.
Print Assumptions script_fuel_suffices_byte_slice_of_script.

(** the decoded model run of [run09] never ends with [EFuel] *)
Theorem script_fuel_suffices_run09 : forall inp,
  good_param (k_meth (dec_case inp)) = true -> o_err (out09 inp) <> EFuel.
Proof.
  intros inp Hg. unfold out09. cbv zeta. set (c := dec_case inp) in *.
  destruct (k_kind c) as [|[p|p|]|p]; cbv beta iota.
  - apply byte_slice_script_fuel_suffices; [apply le_n|exact Hg].
  - apply chunk_fuel_suffices; [apply le_n|exact Hg].
  - apply chunk_fuel_suffices; [apply le_n|exact Hg].
  - apply reader_fuel_suffices; [apply le_n|exact Hg].
  - apply chunk_fuel_suffices; [apply le_n|exact Hg].
Qed.
Print Assumptions script_fuel_suffices_run09.

(** Non-vacuity: a script and a method that meet the hypotheses; and each
    clause of [good_param] is needed (chunk size 0 / read buffer size 0 run out
    of any fuel: here [script_fuel]). *)
Example c09_fuel_instance :
  let H := lookup [([1; 2; 3], [9; 9])] in
  let cfg := mkVcfg [9; 9] 3 13 in
  let evs := [Chunk [1]; Chunk []; Chunk [2; 3]; Eof] in
  let m := MToChunkReader 1 2 1 in
  (script_fuel evs <= script_fuel evs)%nat /\ good_param m = true /\
  cas_chunk_reader H cfg (script_fuel evs) evs m = mkOut [2; 3] EEof [EEof] [true] 1 [].
Proof. split; [apply le_n|]. vm_compute. auto. Qed.
Example c09_fuel_needs_good_param :
  let H := lookup [([1; 2; 3], [9; 9])] in
  let cfg := mkVcfg [9; 9] 3 13 in
  let evs := [Chunk [1]; Chunk [2; 3]; Eof] in
  good_param (MToChunkReader 0 0 0) = false /\ good_param (MToReader [2; 0] 0) = false /\
  o_err (cas_chunk_reader H cfg (script_fuel evs) evs (MToChunkReader 0 0 0)) = EFuel /\
  o_err (cas_reader H cfg (script_fuel evs) evs true (MToChunkReader 0 0 0)) = EFuel /\
  o_err (cas_byte_slice H cfg (script_fuel evs) [1; 2; 3] (MToChunkReader 0 0 0)) = EFuel /\
  o_err (cas_chunk_reader H cfg (script_fuel evs) evs (MToReader [2; 0] 0)) = EFuel /\
  o_err (cas_reader H cfg (script_fuel evs) evs false (MToReader [2; 0] 0)) = EFuel /\
  o_err (cas_byte_slice H cfg (script_fuel evs) [1; 2; 3] (MToReader [2; 0] 0)) = EFuel.
Proof. vm_compute. repeat split; reflexivity. Qed.

(** * The "otherwise" half at constructor level, for EVERY consumption method
    (ToByteSlice, IntoWriter, ReadAt, ToChunkReader at any offset and chunk
    size, ToReader with any read sizes, CloneCopy + ToByteSlice on both copies;
    Discard consumes nothing), every script, digest, hash function, and every
    fuel of at least [script_fuel] with positive loop parameters ([good_param]).

    (a) The integrity callback verdicts are sound — no hypothesis at all (not
        even on fuel): never positive for mismatching content, never negative
        for matching content. *)
Theorem chunk_reader_buffer_callbacks_sound : forall H cfg fuel evs m,
  (In true (o_cbs (cas_chunk_reader H cfg fuel evs m)) -> valid_script H cfg evs) /\
  (In false (o_cbs (cas_chunk_reader H cfg fuel evs m)) -> ~ valid_script H cfg evs).
Proof. exact chunk_callbacks_sound. Qed.
Print Assumptions chunk_reader_buffer_callbacks_sound.

Theorem reader_buffer_callbacks_sound : forall H cfg fuel evs attach m,
  (In true (o_cbs (cas_reader H cfg fuel evs attach m)) -> valid_script H cfg evs) /\
  (In false (o_cbs (cas_reader H cfg fuel evs attach m)) -> ~ valid_script H cfg evs).
Proof. exact reader_callbacks_sound. Qed.
Print Assumptions reader_buffer_callbacks_sound.

(** (b) The error.  [expected_err cfg c t] is the error a consumer must see for
    content [c] terminated by [t] that is not valid: content longer than the
    digest's size => the Source's code (INVALID_ARGUMENT 3 for client-supplied,
    INTERNAL 13 for backend data) whatever follows; otherwise a source I/O
    error is passed through; a clean end (content too short, or of the right
    size with the wrong hash) => the Source's code.  It is never a completion. *)
Theorem expected_err_too_long : forall cfg c t,
  g_size cfg < lenN c -> expected_err cfg c t = ECode (g_code cfg).
Proof. exact C09FullValidate.expected_err_too_long. Qed.
Print Assumptions expected_err_too_long.
Theorem expected_err_io_first : forall cfg c x,
  lenN c <= g_size cfg -> expected_err cfg c (ECode x) = ECode x.
Proof. exact C09FullValidate.expected_err_io_first. Qed.
Print Assumptions expected_err_io_first.
Theorem expected_err_clean_end : forall cfg c, expected_err cfg c EEof = ECode (g_code cfg).
Proof. exact C09FullValidate.expected_err_clean_end. Qed.
Print Assumptions expected_err_clean_end.
Theorem expected_err_is_error : forall cfg evs,
  let e := expected_err cfg (fst (content evs)) (snd (content evs)) in
  e <> ENone /\ e <> EEof /\ e <> EUnexp /\ e <> EFuel.
Proof. exact expected_not_done. Qed.
Print Assumptions expected_err_is_error.

(** (c) Invalid content, parameters the method accepts ([bad_param] = false:
    max >= size for ToByteSlice/CloneCopy, offset >= 0 for ReadAt, 0 <= offset
    <= size for ToChunkReader), positive loop parameters and fuel of at least
    [script_fuel] (so the model does not run out of fuel): the
    consumer receives exactly [expected_err]; counted from the method's offset
    it has received fewer than [size] bytes of the candidate (nothing at all
    through the non-streaming methods). *)
Theorem chunk_reader_buffer_otherwise : forall H cfg fuel evs m o,
  m <> MDiscard -> cas_chunk_reader H cfg fuel evs m = o ->
  (script_fuel evs <= fuel)%nat -> good_param m = true ->
  ~ valid_script H cfg evs -> bad_param (g_size cfg) m = false ->
  o_err o = expected_err cfg (fst (content evs)) (snd (content evs)) /\
  (o_data o = [] \/ Z.to_N (m_off m) + lenN (o_data o) < g_size cfg) /\
  (streams m = false -> o_data o = []).
Proof.
  intros H cfg fuel evs m o Hm Ho Hf Hg Hv Hbp. apply (chunk_otherwise H cfg fuel evs m o Hm Ho); [|exact Hv|exact Hbp].
  subst o. apply chunk_fuel_suffices; assumption.
Qed.
Print Assumptions chunk_reader_buffer_otherwise.

Theorem reader_buffer_otherwise : forall H cfg fuel evs attach m o,
  m <> MDiscard -> cas_reader H cfg fuel evs attach m = o ->
  (script_fuel evs <= fuel)%nat -> good_param m = true ->
  ~ valid_script H cfg evs -> bad_param (g_size cfg) m = false ->
  o_err o = expected_err cfg (fst (content evs)) (snd (content evs)) /\
  (o_data o = [] \/ Z.to_N (m_off m) + lenN (o_data o) < g_size cfg) /\
  (streams m = false -> o_data o = []).
Proof.
  intros H cfg fuel evs attach m o Hm Ho Hf Hg Hv Hbp.
  apply (reader_otherwise H cfg fuel evs attach m o Hm Ho); [|exact Hv|exact Hbp].
  subst o. apply reader_fuel_suffices; assumption.
Qed.
Print Assumptions reader_buffer_otherwise.

(** (d) A parameter the method must reject is rejected with INVALID_ARGUMENT
    before anything is read (whatever the content and the loop parameters). *)
Theorem chunk_reader_buffer_bad_param : forall H cfg fuel evs m o,
  cas_chunk_reader H cfg fuel evs m = o -> (script_fuel evs <= fuel)%nat ->
  bad_param (g_size cfg) m = true ->
  o_err o = ECode 3 /\ o_data o = [] /\ o_cbs o = [] /\ o_aux o = [].
Proof.
  intros H cfg fuel evs m o Ho Hf Hbp. apply (chunk_bad_param H cfg fuel evs m o Ho); [|exact Hbp].
  (* an invalid ToChunkReader offset is rejected before the chunk size matters *)
  subst o. destruct m; cbn [bad_param] in Hbp; try discriminate;
    try (apply chunk_fuel_suffices; [exact Hf|reflexivity]).
  cbn [cas_chunk_reader]. apply negb_true_iff in Hbp. rewrite Hbp. cbn. congruence.
Qed.
Print Assumptions chunk_reader_buffer_bad_param.

Theorem reader_buffer_bad_param : forall H cfg fuel evs attach m o,
  cas_reader H cfg fuel evs attach m = o -> bad_param (g_size cfg) m = true ->
  o_err o = ECode 3 /\ o_data o = [] /\ o_cbs o = [] /\ o_aux o = [].
Proof. exact reader_bad_param. Qed.
Print Assumptions reader_buffer_bad_param.

(** (e) The converse the monitor relies on: VALID content with accepted
    parameters (and positive loop parameters, fuel of at least [script_fuel])
    is never rejected — the call / stream completes. *)
Theorem chunk_reader_buffer_valid_completes : forall H cfg fuel evs m o,
  m <> MDiscard -> cas_chunk_reader H cfg fuel evs m = o ->
  (script_fuel evs <= fuel)%nat -> good_param m = true ->
  valid_script H cfg evs -> bad_param (g_size cfg) m = false ->
  completed m (o_err o) = true.
Proof.
  intros H cfg fuel evs m o Hm Ho Hf Hg Hv Hbp. apply (chunk_valid_completes H cfg fuel evs m o Hm Ho); [|exact Hv|exact Hbp].
  subst o. apply chunk_fuel_suffices; assumption.
Qed.
Print Assumptions chunk_reader_buffer_valid_completes.

Theorem reader_buffer_valid_completes : forall H cfg fuel evs attach m o,
  m <> MDiscard -> cas_reader H cfg fuel evs attach m = o ->
  (script_fuel evs <= fuel)%nat -> good_param m = true ->
  valid_script H cfg evs -> bad_param (g_size cfg) m = false ->
  completed m (o_err o) = true.
Proof.
  intros H cfg fuel evs attach m o Hm Ho Hf Hg Hv Hbp.
  apply (reader_valid_completes H cfg fuel evs attach m o Hm Ho); [|exact Hv|exact Hbp].
  subst o. apply reader_fuel_suffices; assumption.
Qed.
Print Assumptions reader_buffer_valid_completes.

(** (f) After the end of the stream nothing more is handed out (any script,
    valid or not; positive loop parameters, fuel of at least [script_fuel]):
    further reads of a ToChunkReader repeat the error and carry no data;
    further reads of a ToReader carry no data. *)
Theorem chunk_reader_buffer_chunk_reader_extras : forall H cfg fuel evs off max k,
  let o := cas_chunk_reader H cfg fuel evs (MToChunkReader off max k) in
  (script_fuel evs <= fuel)%nat -> good_param (MToChunkReader off max k) = true ->
  o_extra o = repeat (o_err o) k /\ o_aux o = [].
Proof.
  intros H cfg fuel evs off max k o Hf Hg. apply (chunk_to_chunk_reader_extras H cfg fuel evs off max k).
  apply chunk_fuel_suffices; assumption.
Qed.
Print Assumptions chunk_reader_buffer_chunk_reader_extras.
Theorem reader_buffer_chunk_reader_extras : forall H cfg fuel evs attach off max k,
  let o := cas_reader H cfg fuel evs attach (MToChunkReader off max k) in
  (script_fuel evs <= fuel)%nat -> good_param (MToChunkReader off max k) = true ->
  o_extra o = repeat (o_err o) k /\ o_aux o = [].
Proof.
  intros H cfg fuel evs attach off max k o Hf Hg. apply (reader_to_chunk_reader_extras H cfg fuel evs attach off max k).
  apply reader_fuel_suffices; assumption.
Qed.
Print Assumptions reader_buffer_chunk_reader_extras.
Theorem chunk_reader_buffer_reader_extras : forall H cfg fuel evs caps k,
  let o := cas_chunk_reader H cfg fuel evs (MToReader caps k) in
  (script_fuel evs <= fuel)%nat -> good_param (MToReader caps k) = true -> o_aux o = [].
Proof.
  intros H cfg fuel evs caps k o Hf Hg. apply (chunk_to_reader_extras H cfg fuel evs caps k).
  apply chunk_fuel_suffices; assumption.
Qed.
Print Assumptions chunk_reader_buffer_reader_extras.
Theorem reader_buffer_reader_extras : forall H cfg fuel evs attach caps k,
  let o := cas_reader H cfg fuel evs attach (MToReader caps k) in
  (script_fuel evs <= fuel)%nat -> good_param (MToReader caps k) = true -> o_aux o = [].
Proof.
  intros H cfg fuel evs attach caps k o Hf Hg. apply (reader_to_reader_extras H cfg fuel evs attach caps k).
  apply reader_fuel_suffices; assumption.
Qed.
Print Assumptions reader_buffer_reader_extras.

(** (g) NewCASBufferFromByteSlice validates eagerly: mismatching data => every
    method fails with the Source's code, hands out nothing, one negative verdict. *)
Theorem byte_slice_buffer_otherwise : forall H cfg fuel data m,
  m <> MDiscard -> ~ (lenN data = g_size cfg /\ g_hash cfg = H data) ->
  let o := cas_byte_slice H cfg fuel data m in
  o_err o = ECode (g_code cfg) /\ o_data o = [] /\ o_aux o = [] /\ o_cbs o = [false].
Proof. exact byte_slice_otherwise. Qed.
Print Assumptions byte_slice_buffer_otherwise.

(** * size_before_hash.  The hash function enters only through the comparison
    with the digest's hash; the whole outcome (data, error, further reads,
    callbacks, closes) is the same for any two hash functions that agree on
    the complete content, and even that matters only for content that ends
    with io.EOF and has exactly the digest's size.  So for content of the wrong
    size, or ending in an I/O error, the hash is never consulted. *)
Theorem chunk_reader_buffer_hash_only_at_content : forall H1 H2 cfg fuel evs,
  (snd (content evs) = EEof -> lenN (fst (content evs)) = g_size cfg ->
   H1 (fst (content evs)) = H2 (fst (content evs))) ->
  forall m, cas_chunk_reader H1 cfg fuel evs m = cas_chunk_reader H2 cfg fuel evs m.
Proof. exact chunk_hash_only_at_content. Qed.
Print Assumptions chunk_reader_buffer_hash_only_at_content.

Theorem reader_buffer_hash_only_at_content : forall H1 H2 cfg fuel evs,
  (snd (content evs) = EEof -> lenN (fst (content evs)) = g_size cfg ->
   H1 (fst (content evs)) = H2 (fst (content evs))) ->
  forall attach m, cas_reader H1 cfg fuel evs attach m = cas_reader H2 cfg fuel evs attach m.
Proof. exact reader_hash_only_at_content. Qed.
Print Assumptions reader_buffer_hash_only_at_content.

Theorem size_before_hash_chunk_reader : forall H1 H2 cfg fuel evs m,
  ~ (snd (content evs) = EEof /\ lenN (fst (content evs)) = g_size cfg) ->
  cas_chunk_reader H1 cfg fuel evs m = cas_chunk_reader H2 cfg fuel evs m.
Proof. exact chunk_size_before_hash. Qed.
Print Assumptions size_before_hash_chunk_reader.

Theorem size_before_hash_reader : forall H1 H2 cfg fuel evs attach m,
  ~ (snd (content evs) = EEof /\ lenN (fst (content evs)) = g_size cfg) ->
  cas_reader H1 cfg fuel evs attach m = cas_reader H2 cfg fuel evs attach m.
Proof. exact reader_size_before_hash. Qed.
Print Assumptions size_before_hash_reader.

Theorem size_before_hash_byte_slice : forall H1 H2 cfg fuel data m,
  lenN data <> g_size cfg ->
  cas_byte_slice H1 cfg fuel data m = cas_byte_slice H2 cfg fuel data m.
Proof. exact byte_slice_size_before_hash. Qed.
Print Assumptions size_before_hash_byte_slice.

(** NewCASBufferFromByteSlice: every method. *)
Theorem byte_slice_buffer_complete_implies_valid : forall H cfg fuel data m,
  m <> MDiscard ->
  completed m (o_err (cas_byte_slice H cfg fuel data m)) = true ->
  lenN data = g_size cfg /\ g_hash cfg = H data /\
  o_data (cas_byte_slice H cfg fuel data m) = expected_slice m data.
Proof. exact byte_slice_complete_implies_valid. Qed.
Print Assumptions byte_slice_buffer_complete_implies_valid.

Theorem byte_slice_buffer_callback : forall H cfg fuel data m,
  o_cbs (cas_byte_slice H cfg fuel data m) =
    [(g_size cfg =? lenN data) && bytes_eqb (g_hash cfg) (H data)].
Proof. exact byte_slice_callback. Qed.
Print Assumptions byte_slice_buffer_callback.

(** Non-vacuity: a valid script read at offset 1 in chunks of 2 completes with
    the expected slice and one positive verdict; the same script with one byte
    changed hands out nothing of the last chunk and reports a negative verdict. *)
Example c09_completes :
  let H := lookup [([1; 2; 3], [9; 9])] in
  let cfg := mkVcfg [9; 9] 3 13 in
  cas_chunk_reader H cfg 40 [Chunk [1]; Chunk []; Chunk [2; 3]; Eof] (MToChunkReader 1 2 1)
  = mkOut [2; 3] EEof [EEof] [true] 1 [].
Proof. vm_compute. reflexivity. Qed.
Example c09_withholds :
  let H := lookup [([1; 2; 3], [9; 9])] in
  let cfg := mkVcfg [9; 9] 3 13 in
  cas_chunk_reader H cfg 40 [Chunk [1]; Chunk []; Chunk [2; 4]; Eof] (MToChunkReader 0 2 1)
  = mkOut [1] (ECode 13) [ECode 13] [false] 1 [].
Proof. vm_compute. reflexivity. Qed.

(** Non-vacuity of the "otherwise" theorems: invalid scripts with sane
    parameters and enough fuel; the error is [expected_err]: an I/O error after
    at most [size] bytes is passed through, after more than [size] bytes the
    Source's code wins; with offset 1 fewer than size-1 bytes arrive. *)
Example c09_io_error_first :
  let H := lookup [([1; 2; 3], [9; 9])] in
  let cfg := mkVcfg [9; 9] 3 13 in
  let evs := [Chunk [1; 2]; Chunk [3]; Err 14] in
  ~ valid_script H cfg evs /\ bad_param 3 (MToReader [2] 1) = false /\
  expected_err cfg (fst (content evs)) (snd (content evs)) = ECode 14 /\
  cas_reader H cfg 40 evs true (MToReader [2] 1) = mkOut [1; 2] (ECode 14) [ECode 14] [] 1 [].
Proof. vm_compute. split; [intros (A & _); discriminate|auto]. Qed.
Example c09_too_long_before_io_error :
  let H := lookup [([1; 2; 3], [9; 9])] in
  let cfg := mkVcfg [9; 9] 3 13 in
  let evs := [Chunk [1; 2]; Chunk [3; 4]; Err 14] in
  ~ valid_script H cfg evs /\
  expected_err cfg (fst (content evs)) (snd (content evs)) = ECode 13 /\
  cas_chunk_reader H cfg 40 evs (MToChunkReader 1 8 0) = mkOut [2] (ECode 13) [] [false] 1 [].
Proof. vm_compute. split; [intros (A & _); discriminate|auto]. Qed.
(** size before hash: content of the wrong size gives the same outcome for a
    hash function under which it would match and one under which it would not. *)
Example c09_size_before_hash :
  let cfg := mkVcfg [9; 9] 3 3 in
  let evs := [Chunk [1; 2]; Eof] in
  cas_chunk_reader (fun _ => [9; 9]) cfg 40 evs MIntoWriter = mkOut [1; 2] (ECode 3) [] [false] 1 [] /\
  cas_chunk_reader (fun _ => []) cfg 40 evs MIntoWriter = mkOut [1; 2] (ECode 3) [] [false] 1 [].
Proof. vm_compute. auto. Qed.

(** * The monitor never fires on the model: for every input (any sx, all three
    constructors, every method) whose script error codes are genuine gRPC
    error codes (positive) and whose method has positive loop parameters
    ([good_param]: ToChunkReader's maximum chunk size and every ToReader buffer
    size at least 1), all seven clauses of [mon09] are silent on the model's
    own output.  There is no fuel hypothesis: [run09] runs the model
    on [script_fuel] of the decoded script, which suffices
    ([script_fuel_suffices_run09]).
    Full statement (no hypotheses) is FALSE in the sx encoding — see the two
    witnesses below; kept as a comment:
      forall inp, mon09 inp (run09 inp) = []. *)
Theorem mon09_silent_on_model_partial : forall inp,
  (forall x, In (Err x) (k_evs (dec_case inp)) -> (0 < x)%Z) ->
  good_param (k_meth (dec_case inp)) = true ->
  mon09 inp (run09 inp) = [].
Proof.
  intros inp Hpos Hg. apply mon09_silent_on_model; [exact Hpos|]. apply script_fuel_suffices_run09. exact Hg.
Qed.
Print Assumptions mon09_silent_on_model_partial.

(** Both hypotheses are necessary.  ToChunkReader with maximum chunk size 0
    ([good_param] = false) never ends (the normalizing reader hands out empty
    chunks for ever): the model runs out of fuel and clause 3 fires on code -3.
    A script error with code 0 is passed through and reads as nil in an
    observation: clause 1. *)
Example mon09_fires_without_fuel :
  let inp := L [A 2; A 0; L [A 0; L [A 9]; A 1]; L [A 0; L [L [A 0; L [A 7]]; L [A 2]]];
                L [A 3; A 0; A 0; A 0]; L [L [L [A 7]; L [A 9]]]] in
  good_param (k_meth (dec_case inp)) = false /\
  o_err (out09 inp) = EFuel /\ mon09 inp (run09 inp) = [3%Z].
Proof. vm_compute. auto. Qed.
Example mon09_fires_on_error_code_0 :
  let inp := L [A 2; A 0; L [A 0; L [A 9]; A 1]; L [A 0; L [L [A 0; L [A 7]]; L [A 1; A 0]]];
                L [A 0; A 5]; L [L [L [A 7]; L [A 9]]]] in
  good_param (k_meth (dec_case inp)) = true /\
  o_err (out09 inp) = ECode 0 /\ mon09 inp (run09 inp) = [1%Z].
Proof. vm_compute. auto. Qed.
(** non-vacuity: an input that meets both hypotheses *)
Example mon09_silent_instance :
  let inp := L [A 2; A 1; L [A 0; L [A 9]; A 1]; L [A 0; L [L [A 0; L [A 7]]; L [A 2]]];
                L [A 3; A 0; A 4; A 1]; L [L [L [A 7]; L [A 9]]]] in
  (forall x, In (Err x) (k_evs (dec_case inp)) -> (0 < x)%Z) /\
  good_param (k_meth (dec_case inp)) = true /\ o_err (out09 inp) = EEof /\
  run09 inp = L [L [A 7]; A (-1); L [A (-1)]; L [A 1]; A 1; L []].
Proof. vm_compute. split; [intros x [Hx|[Hx|[]]]; discriminate|auto]. Qed.
