(** C14F — sub-check of C14: "FindMissingBlobs returns exactly the subset the
    backend reports missing" and "a client and server of this repository
    connected back to back behave like the backend they front", for requests
    that name digests of SEVERAL instance names and digest functions — the
    same blob may be requested under several instance names in one call, and
    the backend's answer is per (instance name, digest function, blob).

    Model: Rpc/FindMissingMulti.v (the client's partitioning by digest
    function, one server RPC [Batch.find_missing] per partition, conversion
    of every answer with the partition's digest function, union; the order
    [ks] of the RPCs — Go map order — is universally quantified). *)
From Coq Require Import List ZArith Bool.
From BBS Require Import Common.Sx Rpc.ByteStream Rpc.Batch Rpc.FindMissingMulti Rpc.FindMissingMultiProofs
  Run.R14 Run.R14F Run.R14FProofs.
Import ListNotations.
Open Scope Z_scope.

(** ** find_missing_exact, for sets over several instance names.  No
    hypothesis on the backend ([missing]: any predicate on qualified
    digests), on the partitions' statuses ([err]) or on the order of the RPCs
    ([ks]: any list that contains the key of every requested digest). *)
Theorem find_missing_exact_multi : forall missing err ks qs ms,
  (forall q, In q qs -> In (qkey q) ks) ->
  client_find_missing missing err ks qs = (0, ms) ->
  forall q, In q ms <-> In q qs /\ missing q = true.
Proof. exact client_find_missing_exact. Qed.
Print Assumptions find_missing_exact_multi.

(** ** client_server_*: client and server back to back answer like the
    backend: OK, with exactly the backend's set. *)
Theorem client_server_find_missing_multi : forall missing ks qs,
  (forall q, In q qs -> 0 <= d_size (q_dig q)) ->
  (forall q, In q qs -> In (qkey q) ks) ->
  exists ms, client_find_missing missing (fun _ => 0) ks qs = (0, ms)
    /\ forall q, In q ms <-> In q qs /\ missing q = true.
Proof. exact client_server_find_missing. Qed.
Print Assumptions client_server_find_missing_multi.

(** A failing call delivers no partial answer; its status is that of a failing RPC. *)
Theorem find_missing_failure_no_partial_answer : forall missing err ks qs c ms,
  client_find_missing missing err ks qs = (c, ms) -> c <> 0 ->
  ms = [] /\ In c (failing_codes missing err ks qs).
Proof. exact client_find_missing_failure. Qed.
Print Assumptions find_missing_failure_no_partial_answer.

Theorem find_missing_status : forall missing err ks qs,
  fst (client_find_missing missing err ks qs) = hd 0 (failing_codes missing err ks qs).
Proof. exact client_find_missing_code. Qed.
Print Assumptions find_missing_status.

(** The statuses that can occur do not depend on the order of the RPCs. *)
Theorem find_missing_statuses_order_independent : forall missing err ks ks' qs c,
  (forall k, In k ks <-> In k ks') ->
  In c (failing_codes missing err ks qs) -> In c (failing_codes missing err ks' qs).
Proof. exact failing_codes_order. Qed.
Print Assumptions find_missing_statuses_order_independent.

(** The partitioning: one RPC per (instance name, digest function) that
    occurs, carrying exactly the requested digests of that key. *)
Theorem partitions_cover : forall qs q, In q qs -> In (qkey q) (keys qs).
Proof. exact keys_cover. Qed.
Print Assumptions partitions_cover.

Theorem partitions_distinct : forall qs, NoDup (keys qs).
Proof. exact keys_nodup. Qed.
Print Assumptions partitions_distinct.

Theorem partition_single_instance : forall k qs q, In q (partition_of k qs) <-> In q qs /\ qkey q = k.
Proof. exact partition_of_in. Qed.
Print Assumptions partition_single_instance.

(** ** The monitor (Run/R14F.v, mon14F) applied to implementation
    observations is silent on every observation the judge accepts as agreeing
    with the model, and on the model's own output: for all histories of Put /
    Get / FindMissing, all instance names and digest functions, all absent
    flags and all failing partitions. *)
Theorem monitor_silent_on_agreeing_observation_multi : forall inp obs,
  inp_wf14F inp -> agree14F inp (run14F inp) obs = true -> mon14F inp obs = [].
Proof. exact mon14F_silent_on_agreeing. Qed.
Print Assumptions monitor_silent_on_agreeing_observation_multi.

Theorem model_outcome_is_accepted_multi : forall inp, agree14F inp (run14F inp) (run14F inp) = true.
Proof. exact agree14F_model. Qed.
Print Assumptions model_outcome_is_accepted_multi.

Theorem monitor_silent_on_model_multi : forall inp, inp_wf14F inp -> mon14F inp (run14F inp) = [].
Proof. exact mon14F_silent_on_model. Qed.
Print Assumptions monitor_silent_on_model_multi.

(** One blob requested under three instance names, held under the second
    only: the exact answer has two members that differ in the instance name. *)
Example three_instance_names :
  let h := mkD 1 12 in
  let qs := [mkQ 0 0 h; mkQ 1 0 h; mkQ 2 0 h] in
  let missing q := negb (q_inst q =? 1) in
  (forall q, In q qs -> 0 <= d_size (q_dig q))
  /\ (forall q, In q qs -> In (qkey q) (keys qs))
  /\ client_find_missing missing (fun _ => 0) (keys qs) qs = (0, [mkQ 0 0 h; mkQ 2 0 h])
  /\ client_find_missing missing (fun _ => 0) (rev (keys qs)) qs = (0, [mkQ 2 0 h; mkQ 0 0 h]).
Proof.
  split; [intros q [<-|[<-|[<-|[]]]]; vm_compute; discriminate|].
  split; [intros q [<-|[<-|[<-|[]]]]; vm_compute; auto|].
  split; vm_compute; reflexivity.
Qed.

(** A failing partition: either failing status can be returned, never an answer. *)
Example two_failing_partitions :
  let h := mkD 1 12 in
  let qs := [mkQ 0 0 h; mkQ 1 0 h; mkQ 2 0 h] in
  let err k := if fst k =? 0 then 13 else if fst k =? 2 then 14 else 0 in
  client_find_missing (fun _ => true) err (keys qs) qs = (13, [])
  /\ client_find_missing (fun _ => true) err (rev (keys qs)) qs = (14, [])
  /\ failing_codes (fun _ => true) err (keys qs) qs = [13; 14].
Proof. repeat split; vm_compute; reflexivity. Qed.

(** A history inside the monitor theorem's domain: Put under instance name 1,
    Get under 1 and under 2, FindMissing of the blob under 0, 1, 2. *)
Definition example_history : sx :=
  L [L [L [A 7; A 8; A 9]]; A 2;
     L [L [A 0; A 1; A 0; A 0; A 3];
        L [A 1; A 1; A 0; A 0; A 3];
        L [A 1; A 2; A 0; A 0; A 3];
        L [A 2; L [L [A 0; A 0; A 0; A 3; A 0]; L [A 1; A 0; A 0; A 3; A 0]; L [A 2; A 0; A 0; A 3; A 0]]; L []]]].

Example history_in_domain :
  inp_wf14F example_history
  /\ run14F example_history =
     L [L [L [A 0]; L [A 0; L [A 7; A 8; A 9]]; L [A 5; L []];
           L [A 0; L [L [A 0; A 0; A 0; A 3]; L [A 2; A 0; A 0; A 3]];
              L [L [L [A 0; A 0; A 0; A 3]]; L [L [A 1; A 0; A 0; A 3]]; L [L [A 2; A 0; A 0; A 3]]]; L []]];
        L [L [A 1; A 0; A 0; A 3; L [A 7; A 8; A 9]]]].
Proof.
  split; [|vm_compute; reflexivity].
  split; [vm_compute; lia|].
  repeat constructor; vm_compute; try discriminate.
Qed.

(** The monitor is not trivially silent: the observation produced by a
    client that maps answers back by hash alone (the answer for instance 0 is
    attributed to instance 2, the last one sorted) violates clause 1. *)
Example monitor_fires_on_misattributed_answer :
  mon14F example_history
    (L [L [L [A 0]; L [A 0; L [A 7; A 8; A 9]]; L [A 5; L []];
           L [A 0; L [L [A 2; A 0; A 0; A 3]];
              L [L [L [A 0; A 0; A 0; A 3]]; L [L [A 1; A 0; A 0; A 3]]; L [L [A 2; A 0; A 0; A 3]]]]];
        L [L [A 1; A 0; A 0; A 3; L [A 7; A 8; A 9]]]]) = [1].
Proof. vm_compute. reflexivity. Qed.

(** Every hypothesis of the monitor theorem is needed: with a negative size
    the server answers INVALID_ARGUMENT and clause 1 fires on the model. *)
Example fm_size_needed :
  let inp := L [L [L [A 7]]; A 1; L [L [A 2; L [L [A 0; A 0; A 0; A (-1); A 0]]; L []]]] in
  mon14F inp (run14F inp) = [1].
Proof. vm_compute. reflexivity. Qed.
