From Coq Require Import List NArith ZArith Bool Lia Arith.
Import ListNotations.
From BBS Require Import Generated.Consts Complete.WireVisit.
Local Open Scope N_scope.

Lemma varint_step k' s b t :
  varint (S (S k')) s (b :: t) =
  if b <? 128 then VOk (N.shiftl b s) 1
  else match varint (S k') (s + 7) t with
       | VOk v n => VOk (N.shiftl (b - 128) s + v) (S n)
       | e => e
       end.
Proof. reflexivity. Qed.

Lemma varint_pos k s bs v n : varint k s bs = VOk v n -> (1 <= n)%nat.
Proof.
  destruct k as [|[|k']]; [discriminate|..]; (destruct bs as [|b t]; [discriminate|]).
  - cbn. destruct (b <? 2); intro H; inversion H. apply le_n.
  - rewrite varint_step. destruct (b <? 128); [intro H; inversion H; apply le_n|].
    destruct (varint (S k') (s + 7) t); intro H; inversion H. apply le_n_S, Nat.le_0_l.
Qed.

Lemma varint_len k s bs v n : varint k s bs = VOk v n -> (n <= length bs)%nat.
Proof.
  revert s bs v n. induction k as [|k IH]; intros s bs v n H; [discriminate|].
  destruct bs as [|b t]; [discriminate|]. cbn [length]. destruct k as [|k'].
  - cbn in H. destruct (b <? 2); inversion H. apply le_n_S, Nat.le_0_l.
  - rewrite varint_step in H. destruct (b <? 128); [inversion H; apply le_n_S, Nat.le_0_l|].
    destruct (varint (S k') (s + 7) t) as [v' n'| |] eqn:E; inversion H.
    apply le_n_S, (IH _ _ _ _ E).
Qed.

Lemma encode_varint_length fuel v : (1 <= length (encode_varint fuel v) <= S fuel)%nat.
Proof.
  revert v. induction fuel as [|f IH]; intro v; cbn; [lia|].
  destruct (v <? 128); cbn; [lia|]. specialize (IH (v / 128)). lia.
Qed.

Lemma continuation_byte v : v mod 128 + 128 <? 128 = false.
Proof. apply N.ltb_ge, N.le_add_l. Qed.

Lemma varint_encode fuel : forall v s rest,
  v < 2 * 128 ^ N.of_nat fuel ->
  varint (S fuel) s (encode_varint fuel v ++ rest) = VOk (N.shiftl v s) (length (encode_varint fuel v)).
Proof.
  induction fuel as [|f IH]; intros v s rest Hv.
  - cbn [encode_varint app varint]. rewrite (proj2 (N.ltb_lt v 2) Hv). reflexivity.
  - cbn [encode_varint]. destruct (v <? 128) eqn:E.
    + cbn. rewrite E. reflexivity.
    + cbn [app]. rewrite varint_step, continuation_byte, IH.
      2:{ apply N.div_lt_upper_bound; [discriminate|].
          rewrite Nat2N.inj_succ, N.pow_succ_r', N.mul_shuffle3 in Hv. exact Hv. }
      cbn [length]. f_equal.
      rewrite N.add_sub, !N.shiftl_mul_pow2, N.pow_add_r. change (2 ^ 7) with 128.
      transitivity ((128 * (v / 128) + v mod 128) * 2 ^ s); [ring|].
      rewrite <- N.div_mod by discriminate. reflexivity.
Qed.

Lemma varint_truncated fuel : forall v s j,
  (j < length (encode_varint fuel v))%nat ->
  varint (S fuel) s (firstn j (encode_varint fuel v)) = VTrunc.
Proof.
  induction fuel as [|f IH]; intros v s j Hj.
  - apply Nat.lt_1_r in Hj. subst. reflexivity.
  - cbn [encode_varint] in *. destruct (v <? 128).
    + apply Nat.lt_1_r in Hj. subst. reflexivity.
    + destruct j as [|j]; [reflexivity|]. cbn [firstn length] in *.
      rewrite varint_step, continuation_byte, IH by apply Nat.succ_lt_mono, Hj. reflexivity.
Qed.

Lemma consume_varint_enc v rest :
  v < 2 ^ 64 -> consume_varint (enc_varint v ++ rest) = VOk v (length (enc_varint v)).
Proof.
  intro H. unfold consume_varint, enc_varint. rewrite varint_encode by exact H.
  rewrite N.shiftl_0_r. reflexivity.
Qed.

Lemma consume_varint_truncated v j :
  (j < length (enc_varint v))%nat -> consume_varint (firstn j (enc_varint v)) = VTrunc.
Proof. apply varint_truncated. Qed.

Lemma enc_varint_length v : (1 <= length (enc_varint v) <= 10)%nat.
Proof. apply encode_varint_length. Qed.

Lemma firstn_app_le {T} n (a b : list T) : (length a <= n)%nat -> firstn n (a ++ b) = a ++ firstn (n - length a) b.
Proof. intro H. rewrite firstn_app, firstn_all2 by exact H. reflexivity. Qed.
Lemma firstn_app_lt {T} n (a b : list T) : (n <= length a)%nat -> firstn n (a ++ b) = firstn n a.
Proof. intro H. rewrite firstn_app, (proj2 (Nat.sub_0_le _ _) H). apply app_nil_r. Qed.
Lemma skipn_app_exact {T} (a b : list T) : skipn (length a) (a ++ b) = b.
Proof. rewrite skipn_app, skipn_all, Nat.sub_diag. reflexivity. Qed.
Lemma firstn_app_exact {T} (a b : list T) : firstn (length a) (a ++ b) = a.
Proof. rewrite firstn_app, firstn_all, Nat.sub_diag. cbn. apply app_nil_r. Qed.
Lemma firstn_app_app {T} n (a b c : list T) :
  (length a + length b <= n)%nat -> firstn n (a ++ b ++ c) = a ++ b ++ firstn (n - length a - length b) c.
Proof. intro H. rewrite !firstn_app_le by lia. reflexivity. Qed.
Lemma skipn_app_app {T} (a b c : list T) : skipn (length a + length b) (a ++ b ++ c) = c.
Proof. rewrite app_assoc, <- app_length. apply skipn_app_exact. Qed.
Lemma app_ne {T} (a b : list T) : (1 <= length a)%nat -> a ++ b <> [].
Proof. destruct a; [intro H; inversion H|discriminate]. Qed.

Lemma visit_cons v (x : list visit * wres) : (let (vs, r) := x in (v :: vs, r)) = (v :: fst x, snd x).
Proof. destruct x. reflexivity. Qed.

Lemma consume_tag_pos bs num typ n : consume_tag bs = TOk num typ n -> (1 <= n)%nat.
Proof.
  unfold consume_tag, consume_varint. destruct (varint 10 0 bs) as [v k| |] eqn:E; try discriminate.
  destruct (_ || _); [discriminate|]. intro H. inversion H. subst. exact (varint_pos _ _ _ _ _ E).
Qed.

Lemma wire_visit_step f bs term off :
  (exists c, wire_visit (S f) bs term off = ([], WErr c) /\ (c = code_invalid_argument \/ term = Some c))
  \/ (term = None /\ wire_visit (S f) bs term off = ([], WOk))
  \/ (exists v rest off', (length rest < length bs)%nat /\
        wire_visit (S f) bs term off
        = (v :: fst (wire_visit f rest term off'), snd (wire_visit f rest term off'))).
Proof.
  (* the body is unfolded in one place only: as the right-hand side of [Hx] *)
  remember (wire_visit (S f) bs term off) as x eqn:Hx. cbn [wire_visit] in Hx.
  assert (Inv : x = ([], WErr code_invalid_argument) ->
                exists c, x = ([], WErr c) /\ (c = code_invalid_argument \/ term = Some c))
    by (intros ->; eexists; split; [reflexivity|left; reflexivity]).
  destruct (if (length bs <? 32)%nat then term else None) as [c|] eqn:Ep.
  { left. exists c. split; [exact Hx|right]. destruct (length bs <? 32)%nat; [exact Ep|discriminate]. }
  destruct bs as [|b t]; [right; left; split; [exact Ep|exact Hx]|].
  destruct (consume_tag (firstn 32 (b :: t))) as [num typ ntag|] eqn:Et; [|left; exact (Inv Hx)].
  destruct (negb (typ =? bytes_type)); [left; exact (Inv Hx)|].
  destruct (consume_varint (skipn ntag (firstn 32 (b :: t)))) as [size nlen| |]; [|left; exact (Inv Hx)..].
  destruct (max_int64 - off <? size); [left; exact (Inv Hx)|].
  destruct (N.of_nat (length (skipn (ntag + nlen) (b :: t))) <? size).
  - left. destruct term as [c|]; [|exact (Inv Hx)]. exists c. split; [exact Hx|right; reflexivity].
  - right; right. rewrite visit_cons in Hx. do 3 eexists. split; [|exact Hx].
    apply consume_tag_pos in Et. rewrite !skipn_length. cbn [length]. lia.
Qed.

Lemma wire_visit_terminates fuel : forall bs term off,
  (length bs < fuel)%nat -> snd (wire_visit fuel bs term off) <> WFuel.
Proof.
  induction fuel as [|f IH]; intros bs term off Hl; [inversion Hl|].
  destruct (wire_visit_step f bs term off) as [(c & E & _)|[(_ & E)|(v & rest & off' & Hr & E)]];
    rewrite E; [discriminate..|].
  apply IH. lia.
Qed.

Lemma wire_visit_error_term fuel : forall bs c off, snd (wire_visit fuel bs (Some c) off) <> WOk.
Proof.
  induction fuel as [|f IH]; intros bs c off; [discriminate|].
  destruct (wire_visit_step f bs (Some c) off) as [(c' & E & _)|[(E & _)|(v & rest & off' & _ & E)]];
    [rewrite E; discriminate|discriminate E|rewrite E; apply IH].
Qed.

Theorem wire_visit_all_read_error : forall bs c, snd (wire_visit_all bs (Some c)) <> WOk.
Proof. intros. apply wire_visit_error_term. Qed.

Lemma wire_visit_err fuel : forall bs term off vs c,
  wire_visit fuel bs term off = (vs, WErr c) -> c = code_invalid_argument \/ term = Some c.
Proof.
  induction fuel as [|f IH]; intros bs term off vs c H; [discriminate|].
  destruct (wire_visit_step f bs term off) as [(c' & E & Hc)|[(_ & E)|(v & rest & off' & _ & E)]];
    rewrite E in H; inversion H; subst.
  - exact Hc.
  - eapply IH. rewrite <- H2. apply surjective_pairing.
Qed.

Lemma wire_visit_S_ne f bs off :
  bs <> [] ->
  wire_visit (S f) bs None off =
  match consume_tag (firstn 32 bs) with
  | TErr => ([], WErr code_invalid_argument)
  | TOk num typ ntag =>
      if negb (typ =? bytes_type) then ([], WErr code_invalid_argument)
      else
        match consume_varint (skipn ntag (firstn 32 bs)) with
        | VOk size nlen =>
            if max_int64 - off <? size then ([], WErr code_invalid_argument)
            else
              if N.of_nat (length (skipn (ntag + nlen) bs)) <? size then ([], WErr code_invalid_argument)
              else
                let (vs, r) := wire_visit f (skipn (N.to_nat size) (skipn (ntag + nlen) bs)) None
                                          (off + N.of_nat (ntag + nlen) + size) in
                (mkVisit num (off + N.of_nat (ntag + nlen)) size
                         (firstn (N.to_nat size) (skipn (ntag + nlen) bs)) :: vs, r)
        | _ => ([], WErr code_invalid_argument)
        end
  end.
Proof.
  intro H. cbn [wire_visit]. destruct (length bs <? 32)%nat; (destruct bs; [congruence|reflexivity]).
Qed.

Definition wf_num (num : N) : Prop := 1 <= num /\ num <= max_int32.
Definition tag_bytes (num : N) : list N := enc_varint (num * 8 + bytes_type).
Definition len_bytes (p : list N) : list N := enc_varint (N.of_nat (length p)).
Definition hdr_len (num : N) (p : list N) : nat := (length (tag_bytes num) + length (len_bytes p))%nat.

Lemma fits_int64 n : n <= max_int64 -> n < 2 ^ 64.
Proof. intro H. apply (N.le_lt_trans _ _ _ H). reflexivity. Qed.

Lemma consume_tag_enc num rest :
  wf_num num -> consume_tag (tag_bytes num ++ rest) = TOk num bytes_type (length (tag_bytes num)).
Proof.
  intros [H1 H2]. unfold consume_tag, tag_bytes, bytes_type, max_int32 in *.
  rewrite consume_varint_enc by (apply fits_int64; unfold max_int64; lia).
  assert (E1 : N.shiftr (num * 8 + 2) 3 = num).
  { rewrite N.shiftr_div_pow2. change (2 ^ 3) with 8. symmetry. apply N.div_unique with 2; lia. }
  assert (E2 : N.land (num * 8 + 2) 7 = 2).
  { change 7 with (N.ones 3). rewrite N.land_ones. change (2 ^ 3) with 8. symmetry.
    apply N.mod_unique with num; lia. }
  rewrite E1, E2, (proj2 (N.ltb_ge 2147483647 num) H2), (proj2 (N.ltb_ge num 1) H1). reflexivity.
Qed.

Lemma consume_tag_truncated num j :
  (j < length (tag_bytes num))%nat -> consume_tag (firstn j (tag_bytes num)) = TErr.
Proof. intro H. unfold consume_tag, tag_bytes. rewrite consume_varint_truncated by exact H. reflexivity. Qed.

Lemma consume_len_enc p rest :
  N.of_nat (length p) < 2 ^ 64 ->
  consume_varint (len_bytes p ++ rest) = VOk (N.of_nat (length p)) (length (len_bytes p)).
Proof. apply consume_varint_enc. Qed.

Lemma consume_len_truncated p j :
  (j < length (len_bytes p))%nat -> consume_varint (firstn j (len_bytes p)) = VTrunc.
Proof. apply consume_varint_truncated. Qed.

Lemma tag_bytes_length num : (1 <= length (tag_bytes num) <= 10)%nat.
Proof. apply enc_varint_length. Qed.
Lemma len_bytes_length p : (1 <= length (len_bytes p) <= 10)%nat.
Proof. apply enc_varint_length. Qed.

Lemma hdr_len_bounds num p : (2 <= hdr_len num p <= 32)%nat.
Proof. unfold hdr_len. pose proof (tag_bytes_length num). pose proof (len_bytes_length p). lia. Qed.

Lemma encode_field_split num p rest :
  encode_field num p ++ rest = tag_bytes num ++ len_bytes p ++ p ++ rest.
Proof. unfold encode_field, tag_bytes, len_bytes. rewrite <- !app_assoc. reflexivity. Qed.

Lemma encode_field_length num p : length (encode_field num p) = (hdr_len num p + length p)%nat.
Proof. unfold encode_field, hdr_len, tag_bytes, len_bytes. rewrite !app_length. lia. Qed.

Lemma visit_header f num p x off :
  wf_num num -> N.of_nat (length p) < 2 ^ 64 ->
  wire_visit (S f) (tag_bytes num ++ len_bytes p ++ x) None off =
  let size := N.of_nat (length p) in
  let off' := off + N.of_nat (hdr_len num p) in
  if max_int64 - off <? size then ([], WErr code_invalid_argument)
  else if N.of_nat (length x) <? size then ([], WErr code_invalid_argument)
  else (mkVisit num off' size (firstn (length p) x) :: fst (wire_visit f (skipn (length p) x) None (off' + size)),
        snd (wire_visit f (skipn (length p) x) None (off' + size))).
Proof.
  intros Hn Hp. pose proof (hdr_len_bounds num p) as [_ Hh].
  rewrite wire_visit_S_ne by apply app_ne, tag_bytes_length.
  rewrite firstn_app_app, consume_tag_enc by assumption.
  change (negb (bytes_type =? bytes_type)) with false. cbv iota.
  rewrite skipn_app_exact, consume_len_enc, skipn_app_app, Nat2N.id, visit_cons by exact Hp.
  reflexivity.
Qed.

Lemma visit_field f num p rest off :
  wf_num num -> N.of_nat (length p) <= max_int64 - off ->
  wire_visit (S f) (encode_field num p ++ rest) None off =
  (mkVisit num (off + N.of_nat (hdr_len num p)) (N.of_nat (length p)) p
     :: fst (wire_visit f rest None (off + N.of_nat (hdr_len num p) + N.of_nat (length p))),
   snd (wire_visit f rest None (off + N.of_nat (hdr_len num p) + N.of_nat (length p)))).
Proof.
  intros Hn Hsz. rewrite encode_field_split, visit_header; [|exact Hn|apply fits_int64; lia].
  cbv zeta. rewrite (proj2 (N.ltb_ge _ _) Hsz), app_length, Nat2N.inj_add.
  rewrite (proj2 (N.ltb_ge _ _) (N.le_add_r _ _)), firstn_app_exact, skipn_app_exact. reflexivity.
Qed.

(** The visits of a well-formed message, with their payload offsets. *)
Fixpoint visits_of (off : N) (fs : list (N * list N)) : list visit :=
  match fs with
  | [] => []
  | (num, p) :: t =>
      let off' := off + N.of_nat (hdr_len num p) in
      mkVisit num off' (N.of_nat (length p)) p :: visits_of (off' + N.of_nat (length p)) t
  end.

Lemma visit_fields fs : forall fuel off tail,
  Forall (fun f => wf_num (fst f)) fs ->
  off + N.of_nat (length (encode_fields fs)) <= max_int64 ->
  wire_visit (length fs + fuel) (encode_fields fs ++ tail) None off =
  (visits_of off fs ++ fst (wire_visit fuel tail None (off + N.of_nat (length (encode_fields fs)))),
   snd (wire_visit fuel tail None (off + N.of_nat (length (encode_fields fs))))).
Proof.
  induction fs as [|[num p] t IH]; intros fuel off tail Hwf Hoff.
  - cbn. rewrite N.add_0_r. apply surjective_pairing.
  - inversion Hwf as [|x l Hn Ht]. subst. cbn [fst] in Hn.
    cbn [encode_fields length Nat.add] in *. rewrite app_length, encode_field_length in *.
    rewrite <- app_assoc, visit_field; [|exact Hn|lia].
    rewrite IH; [|exact Ht|lia].
    cbn [fst snd visits_of].
    replace (off + N.of_nat (hdr_len num p) + N.of_nat (length p) + N.of_nat (length (encode_fields t)))
      with (off + N.of_nat (hdr_len num p + length p + length (encode_fields t))) by lia.
    reflexivity.
Qed.

Lemma fields_fuel fs x : exists k, S (length (encode_fields fs ++ x)) = (length fs + S k)%nat.
Proof.
  assert (H : (length fs <= length (encode_fields fs))%nat).
  { induction fs as [|[num p] t IH]; cbn [encode_fields length]; [apply le_n|].
    rewrite app_length, encode_field_length. pose proof (hdr_len_bounds num p). lia. }
  exists (length (encode_fields fs ++ x) - length fs)%nat. rewrite app_length. lia.
Qed.

Lemma truncated_field f num p j off :
  wf_num num -> N.of_nat (length p) < 2 ^ 64 ->
  (0 < j < length (encode_field num p))%nat ->
  wire_visit (S f) (firstn j (encode_field num p)) None off = ([], WErr code_invalid_argument).
Proof.
  intros Hn Hp Hj. rewrite encode_field_length in Hj.
  rewrite <- (app_nil_r (encode_field num p)), encode_field_split, app_nil_r.
  pose proof (hdr_len_bounds num p) as [_ Hw].
  destruct (Nat.lt_ge_cases j (hdr_len num p)) as [C|C]; unfold hdr_len in *.
  - (* cut inside the header, all of which is in the window *)
    rewrite app_assoc, firstn_app_lt by (rewrite app_length; apply Nat.lt_le_incl, C).
    rewrite wire_visit_S_ne.
    2:{ destruct Hj as [Hj _]. pose proof (tag_bytes_length num) as [HT _].
        destruct j; [inversion Hj|]. destruct (tag_bytes num); [inversion HT|discriminate]. }
    rewrite (firstn_all2 (n := 32)).
    2:{ apply Nat.le_trans with j; [apply firstn_le_length|]. exact (Nat.lt_le_incl _ _ (Nat.lt_le_trans _ _ _ C Hw)). }
    destruct (Nat.lt_ge_cases j (length (tag_bytes num))) as [C1|C1].
    + rewrite firstn_app_lt by apply Nat.lt_le_incl, C1.
      rewrite consume_tag_truncated by exact C1. reflexivity.
    + rewrite firstn_app_le, consume_tag_enc by assumption.
      change (negb (bytes_type =? bytes_type)) with false. cbv iota.
      rewrite skipn_app_exact, consume_len_truncated by lia. reflexivity.
  - (* cut inside the payload *)
    rewrite firstn_app_app, visit_header by assumption. cbv zeta.
    destruct (max_int64 - off <? N.of_nat (length p)); [reflexivity|].
    rewrite (proj2 (N.ltb_lt _ _)); [reflexivity|]. rewrite firstn_length. lia.
Qed.

(** The model's header window is the code's br.Peek(n) (regenerated constant):
    a change of that literal in pkg/util/proto.go breaks this proof. *)
Lemma peek_size_is_modelled : c13_peek_size = 32%nat.
Proof. reflexivity. Qed.
