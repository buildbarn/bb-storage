From Coq Require Import List Arith ZArith Bool Lia.
Import ListNotations.
From BBS Require Import Complete.Completeness.

Lemma seq_inv (a b : action) q r q2 :
  seq a b q = (r, q2) ->
  (exists c, a q = (Some c, q2) /\ r = Some c) \/ (exists q1, a q = (None, q1) /\ b q1 = (r, q2)).
Proof.
  unfold seq. destruct (a q) as [[c|] q1]; intro H.
  - left. exists c. inversion H. auto.
  - right. eauto.
Qed.

Lemma set_add_in x d l : In x (set_add d l) <-> x = d \/ In x l.
Proof.
  unfold set_add. destruct (existsb (Nat.eqb d) l) eqn:E.
  - split; [auto|]. intros [->|H]; [|exact H].
    apply existsb_exists in E. destruct E as (y & Hy & Hd). apply Nat.eqb_eq in Hd. subst. exact Hy.
  - rewrite in_app_iff. cbn. intuition.
Qed.

Lemma set_add_length d l : length (set_add d l) <= S (length l).
Proof.
  unfold set_add. destruct (existsb (Nat.eqb d) l); [lia|]. rewrite app_length. cbn. lia.
Qed.

Definition push (d : nat) : action :=
  fun q => (None, mkQ (set_add d (q_pending q)) (q_fmcalls q) (q_log q)).
Definition fresh (q : qstate) : qstate := mkQ [] (q_fmcalls q) (q_log q).

Section P.
  Variable batch : nat.
  Variables maxmsg maxtree : Z.
  Variable fm : nat -> list nat -> fm_answer.
  Variable gets : list tget.

  Local Notation Finalize := (finalize fm).
  Local Notation Add := (add batch fm).
  Local Notation AddAll := (add_all batch fm).
  Local Notation AddOutdirs := (add_outdirs batch fm).
  Local Notation VisitDir := (visit_dir batch maxmsg fm).
  Local Notation VisitItems := (visit_items batch maxmsg fm).
  Local Notation VisitTree := (visit_tree batch maxmsg fm).
  Local Notation TreeLoop := (tree_loop batch maxmsg fm gets).
  Local Notation CheckAction := (check_action batch maxmsg maxtree fm gets).
  Local Notation Check := (check batch maxmsg maxtree fm gets).

  Definition ok_batch (q : qstate) (b : list nat) : Prop :=
    exists k, In (CFm k b (FmMissing [])) (q_log q).
  Definition flushed (q : qstate) (d : nat) : Prop := exists b, ok_batch q b /\ In d b.
  Definition covered (q : qstate) (d : nat) : Prop := In d (q_pending q) \/ flushed q d.
  Definition mono (q q' : qstate) : Prop := forall c, In c (q_log q) -> In c (q_log q').
  Definition ext (q q' : qstate) : Prop := mono q q' /\ forall d, covered q d -> covered q' d.
  Definition guarantees (a : action) (S : list nat) : Prop :=
    forall q q', a q = (None, q') -> ext q q' /\ forall d, In d S -> covered q' d.

  Lemma flushed_mono q q' d : mono q q' -> flushed q d -> flushed q' d.
  Proof. intros Hm (b & (k & Hk) & Hd). exists b. split; [exists k; auto|exact Hd]. Qed.

  Lemma ext_refl q : ext q q.
  Proof. split; [intros c H; exact H|auto]. Qed.

  Lemma ext_trans q1 q2 q3 : ext q1 q2 -> ext q2 q3 -> ext q1 q3.
  Proof. intros [m1 c1] [m2 c2]. split; [intros c H; auto|auto]. Qed.

  Lemma g_ret : guarantees ret [].
  Proof. intros q q' H. inversion H. subst. split; [apply ext_refl|intros d []]. Qed.

  Lemma g_seq a b S1 S2 : guarantees a S1 -> guarantees b S2 -> guarantees (seq a b) (S1 ++ S2).
  Proof.
    intros Ha Hb q q' H. apply seq_inv in H. destruct H as [(c & _ & Hc)|(q1 & H1 & H2)]; [discriminate|].
    destruct (Ha _ _ H1) as [E1 C1]. destruct (Hb _ _ H2) as [E2 C2].
    split; [eapply ext_trans; eauto|].
    intros d Hd. apply in_app_iff in Hd. destruct Hd as [Hd|Hd]; [|auto].
    destruct E2 as [_ E2]. auto.
  Qed.

  Lemma g_weaken a S S' : guarantees a S -> incl S' S -> guarantees a S'.
  Proof. intros Ha Hi q q' H. destruct (Ha _ _ H) as [E C]. split; auto. Qed.

  Lemma finalize_eq q :
    Finalize q =
    (match fm (q_fmcalls q) (q_pending q) with
     | FmErr c => Some c
     | FmMissing [] => None
     | FmMissing (_ :: _) => Some code_not_found
     end,
     mkQ (q_pending q) (S (q_fmcalls q))
         (CFm (q_fmcalls q) (q_pending q) (fm (q_fmcalls q) (q_pending q)) :: q_log q)).
  Proof. unfold finalize. destruct (fm (q_fmcalls q) (q_pending q)) as [[|x m]|c]; reflexivity. Qed.

  Lemma add_eq w q :
    wd_ok w = true ->
    Add (Some w) q = if batch <=? length (q_pending q)
                     then seq Finalize (fun q1 => push (wd_id w) (fresh q1)) q
                     else push (wd_id w) q.
  Proof. intro H. unfold add. rewrite H. reflexivity. Qed.

  Lemma add_malformed w q : wd_ok w = false -> Add (Some w) q = (Some code_not_found, q).
  Proof. intro H. unfold add. rewrite H. reflexivity. Qed.

  Lemma finalize_ok q q' :
    Finalize q = (None, q') -> mono q q' /\ forall d, covered q d -> flushed q' d.
  Proof.
    rewrite finalize_eq. destruct (fm (q_fmcalls q) (q_pending q)) as [[|x m]|c]; intro H; inversion H.
    subst. split; [intros c Hc; right; exact Hc|]. intros d [Hd|Hd].
    - exists (q_pending q). split; [exists (q_fmcalls q); left; reflexivity|exact Hd].
    - apply (flushed_mono q); [intros c Hc; right; exact Hc|exact Hd].
  Qed.

  Lemma g_add o : guarantees (Add o) (ids_of [o]).
  Proof.
    destruct o as [w|]; [|apply g_ret]. intros q q' H.
    destruct (wd_ok w) eqn:Hw; [|rewrite (add_malformed _ _ Hw) in H; discriminate].
    rewrite (add_eq _ _ Hw) in H.
    assert (Hin : forall l, In (wd_id w) (set_add (wd_id w) l)) by (intro l; apply set_add_in; left; reflexivity).
    destruct (batch <=? length (q_pending q)).
    - apply seq_inv in H. destruct H as [(c & _ & Hc)|(q1 & H1 & H2)]; [discriminate|].
      destruct (finalize_ok _ _ H1) as [Hm Hf]. inversion H2. subst q'. split; [split|].
      + exact Hm.
      + intros d Hd. right. exact (Hf d Hd).
      + intros d [<-|[]]. left. apply Hin.
    - inversion H. subst q'. split; [split|].
      + intros c Hc. exact Hc.
      + intros d [Hd|Hd]; [left; apply set_add_in; right; exact Hd|right; exact Hd].
      + intros d [<-|[]]. left. apply Hin.
  Qed.

  Lemma ids_of_cons o l : ids_of (o :: l) = ids_of [o] ++ ids_of l.
  Proof. unfold ids_of. cbn. rewrite app_nil_r. reflexivity. Qed.

  Lemma g_add_all l : guarantees (AddAll l) (ids_of l).
  Proof.
    induction l as [|o t IH]; [apply g_ret|].
    rewrite ids_of_cons. cbn [add_all]. apply g_seq; [apply g_add|exact IH].
  Qed.

  Lemma g_add_outdirs l : guarantees (AddOutdirs l) (outdir_ids l).
  Proof.
    induction l as [|od t IH]; [apply g_ret|].
    unfold outdir_ids. cbn [flat_map add_outdirs]. fold (outdir_ids t).
    rewrite (ids_of_cons (od_tree od)), <- app_assoc.
    apply g_seq; [apply g_add|]. apply g_seq; [apply g_add|exact IH].
  Qed.

  Lemma g_visit_dir r it : guarantees (VisitDir r it) (item_ids r it).
  Proof.
    unfold visit_dir, item_ids. destruct (Z.ltb maxmsg (snd it)).
    - intros q q' H. discriminate.
    - apply g_seq; [apply g_add_all|]. destruct r; [apply g_add_all|apply g_ret].
  Qed.

  Lemma g_visit_items r items : guarantees (VisitItems r items) (flat_map (item_ids r) items).
  Proof.
    induction items as [|it t IH]; [apply g_ret|].
    cbn [visit_items flat_map]. apply g_seq; [apply g_visit_dir|exact IH].
  Qed.

  Lemma g_visit_tree od g :
    guarantees (VisitTree od g) (flat_map (item_ids (is_some (od_root od))) (tg_items g)).
  Proof.
    intros q q' H. unfold visit_tree in H.
    destruct (VisitItems (is_some (od_root od)) (tg_items g) q) as [[c|] q1] eqn:Hv; [discriminate|].
    destruct (tg_end g); [discriminate|]. inversion H. subst.
    exact (g_visit_items _ _ _ _ Hv).
  Qed.

  Lemma g_log_get i id : guarantees (log_get i id) [].
  Proof.
    intros q q' H. inversion H. subst. split; [|intros d []].
    split; [intros c Hc; cbn; auto|].
    intros d [Hd|Hd]; [left; exact Hd|right]. eapply flushed_mono; [|exact Hd]. intros c Hc. cbn. auto.
  Qed.

  Lemma g_tree_loop dirs : forall i rem, guarantees (TreeLoop i rem dirs) (tree_ids i gets dirs).
  Proof.
    induction dirs as [|od t IH]; intros i rem; [apply g_ret|].
    cbn [tree_loop tree_ids]. destruct (derive (od_tree od)) as [w|]; [|intros q q' H; discriminate].
    destruct (Z.ltb rem (wd_size w)); [intros q q' H; discriminate|].
    change (flat_map (item_ids (is_some (od_root od))) (tg_items (nth i gets get_not_found)) ++ tree_ids (S i) gets t)
      with ([] ++ (flat_map (item_ids (is_some (od_root od))) (tg_items (nth i gets get_not_found)) ++ tree_ids (S i) gets t)).
    apply g_seq; [apply g_log_get|]. apply g_seq; [apply g_visit_tree|apply IH].
  Qed.

  Definition flushes (a : action) (S : list nat) : Prop :=
    forall q q', a q = (None, q') -> forall d, covered q d \/ In d S -> flushed q' d.

  Lemma fl_seq a b S1 S2 : guarantees a S1 -> flushes b S2 -> flushes (seq a b) (S1 ++ S2).
  Proof.
    intros Ha Hb q q' H d Hd. apply seq_inv in H. destruct H as [(c & _ & Hc)|(q1 & H1 & H2)]; [discriminate|].
    destruct (Ha _ _ H1) as [[_ He] Hc]. apply (Hb _ _ H2). rewrite in_app_iff in Hd.
    destruct Hd as [Hd|[Hd|Hd]]; [left; apply He, Hd|left; apply Hc, Hd|right; exact Hd].
  Qed.

  Lemma check_ok_flushed ar q :
    Check ar = (None, q) -> forall d, In d (referenced ar gets) -> flushed q d.
  Proof.
    assert (F : flushes (CheckAction ar) (referenced ar gets)).
    { unfold referenced, check_action.
      rewrite (ids_of_cons (ar_stdout ar)), <- app_assoc, <- (app_nil_r (tree_ids 0 gets (ar_dirs ar))).
      apply fl_seq; [apply g_add_all|]. apply fl_seq; [apply g_add_outdirs|].
      apply fl_seq; [apply g_add|]. apply fl_seq; [apply g_add|]. apply fl_seq; [apply g_tree_loop|].
      intros q1 q2 H1 d [Hd|[]]. exact (proj2 (finalize_ok _ _ H1) d Hd). }
    intros H d Hd. exact (F _ _ H d (or_intror Hd)).
  Qed.

  Definition fails (a : action) : Prop := forall q, fst (a q) <> None.

  Lemma f_seq_l a b : fails a -> fails (seq a b).
  Proof. intros Ha q. unfold seq. specialize (Ha q). destruct (a q) as [[c|] q1]; cbn in *; congruence. Qed.
  Lemma f_seq_r a b : fails b -> fails (seq a b).
  Proof. intros Hb q. unfold seq. destruct (a q) as [[c|] q1]; cbn; [congruence|apply Hb]. Qed.
  Lemma f_fail c : fails (fail c).
  Proof. intros q. cbn. congruence. Qed.

  Definition malformed (o : odig) : Prop := exists w, o = Some w /\ wd_ok w = false.

  Lemma f_add o : malformed o -> fails (Add o).
  Proof. intros (w & -> & Hw) q. unfold add. rewrite Hw. cbn. congruence. Qed.

  Lemma f_add_all l : Exists malformed l -> fails (AddAll l).
  Proof.
    induction 1 as [o t H|o t H IH]; cbn [add_all]; [apply f_seq_l, f_add, H|apply f_seq_r, IH].
  Qed.

  Lemma f_add_outdirs l :
    Exists (fun od => malformed (od_tree od) \/ malformed (od_root od)) l -> fails (AddOutdirs l).
  Proof.
    induction 1 as [od t H|od t H IH]; cbn [add_outdirs].
    - destruct H as [H|H]; [apply f_seq_l, f_add, H|apply f_seq_r, f_seq_l, f_add, H].
    - apply f_seq_r, f_seq_r, IH.
  Qed.

  Lemma f_visit_dir r it : Exists malformed (item_digs r it) -> fails (VisitDir r it).
  Proof.
    unfold item_digs, visit_dir. intro H. destruct (Z.ltb maxmsg (snd it)); [apply f_fail|].
    apply Exists_app in H. destruct H as [H|H]; [apply f_seq_l, f_add_all, H|].
    apply f_seq_r. destruct r; [apply f_add_all, H|inversion H].
  Qed.

  Lemma f_visit_items r items :
    Exists (fun it => Exists malformed (item_digs r it) \/ (maxmsg < snd it)%Z) items -> fails (VisitItems r items).
  Proof.
    induction 1 as [it t H|it t H IH]; cbn [visit_items]; [apply f_seq_l|apply f_seq_r, IH].
    destruct H as [H|H]; [apply f_visit_dir, H|].
    unfold visit_dir. apply Z.ltb_lt in H. rewrite H. apply f_fail.
  Qed.

  (** The visit of one output directory fails when the stream does not end
      cleanly, when a delivered Directory holds a malformed digest, or when a
      Directory message exceeds the maximum message size. *)
  Definition bad_tget (od : outdir) (g : tget) : Prop :=
    (exists c, tg_end g = Some c)
    \/ Exists (fun it => Exists malformed (item_digs (is_some (od_root od)) it) \/ (maxmsg < snd it)%Z) (tg_items g).

  Lemma f_visit_tree od g : bad_tget od g -> fails (VisitTree od g).
  Proof.
    intros H q. unfold visit_tree.
    destruct (VisitItems (is_some (od_root od)) (tg_items g) q) as [[c|] q1] eqn:Hv; [cbn; congruence|].
    destruct H as [(c & Hc)|H].
    - rewrite Hc. cbn. congruence.
    - pose proof (f_visit_items _ _ H q) as F. rewrite Hv in F. cbn in F. congruence.
  Qed.

  Lemma f_tree_loop dirs : forall i rem j od,
    nth_error dirs j = Some od ->
    derive (od_tree od) = None \/ bad_tget od (nth (i + j) gets get_not_found) ->
    fails (TreeLoop i rem dirs).
  Proof.
    induction dirs as [|od0 t IH]; intros i rem j od Hn Hbad; [destruct j; discriminate|].
    cbn [tree_loop]. destruct j as [|j].
    - cbn in Hn. inversion Hn. subst od0. rewrite Nat.add_0_r in Hbad.
      destruct (derive (od_tree od)) as [w|]; [|apply f_fail].
      destruct (Z.ltb rem (wd_size w)); [apply f_fail|].
      destruct Hbad as [Hbad|Hbad]; [discriminate|].
      apply f_seq_r, f_seq_l, f_visit_tree, Hbad.
    - destruct (derive (od_tree od0)) as [w|]; [|apply f_fail].
      destruct (Z.ltb rem (wd_size w)); [apply f_fail|].
      apply f_seq_r, f_seq_r. eapply IH; [exact Hn|]. rewrite Nat.add_succ_l, <- Nat.add_succ_r in *.
      replace (S i + j) with (i + S j) by lia. exact Hbad.
  Qed.

  Definition tree_sizes (dirs : list outdir) : Z :=
    fold_right Z.add 0%Z (map (fun od => match od_tree od with Some w => wd_size w | None => 0%Z end) dirs).

  Lemma tree_loop_budget dirs : forall i rem q q',
    TreeLoop i rem dirs q = (None, q') -> (dirs <> [] \/ 0 <= rem)%Z -> (tree_sizes dirs <= rem)%Z.
  Proof.
    induction dirs as [|od t IH]; intros i rem q q' H Hne.
    - cbn. destruct Hne as [Hne|Hne]; [congruence|exact Hne].
    - cbn [tree_loop] in H. unfold tree_sizes. cbn [map fold_right]. fold (tree_sizes t).
      unfold derive in H. destruct (od_tree od) as [w|]; [|discriminate].
      destruct (wd_ok w); [|discriminate].
      destruct (Z.ltb rem (wd_size w)) eqn:Hlt; [discriminate|]. apply Z.ltb_ge in Hlt.
      apply seq_inv in H. destruct H as [(c & _ & Hc)|(q1 & _ & H)]; [discriminate|].
      apply seq_inv in H. destruct H as [(c & _ & Hc)|(q2 & _ & H)]; [discriminate|].
      apply IH in H; [lia|right; lia].
  Qed.

  Lemma f_tree_budget dirs i :
    (dirs <> [] \/ 0 <= maxtree)%Z -> (maxtree < tree_sizes dirs)%Z -> fails (TreeLoop i maxtree dirs).
  Proof.
    intros Hne Hlt q. destruct (TreeLoop i maxtree dirs q) as [[c|] q'] eqn:H; cbn; [congruence|].
    apply tree_loop_budget in H; [lia|exact Hne].
  Qed.

  (** A tree Get is benign when every delivered Directory fits the message
      size and the stream either ends cleanly or the tree is simply absent. *)
  Definition benign (g : tget) : Prop :=
    Forall (fun it => (snd it <= maxmsg)%Z) (tg_items g)
    /\ ((tg_end g = None /\ tg_term g = None)
        \/ (tg_end g = Some code_not_found /\ tg_term g = Some code_not_found)).
End P.

(** [triple I E a]: started in a state with [I], the action [a] goes on in a
    state with [I], or fails with a code [c] in a state with [E c]. *)
Section Triple.
  Variable batch : nat.
  Variable maxmsg : Z.
  Variable fm : nat -> list nat -> fm_answer.
  Variable gets : list tget.
  Variable I : qstate -> Prop.
  Variable E : Z -> qstate -> Prop.

  Definition triple (a : action) : Prop :=
    forall q r q', I q -> a q = (r, q') -> match r with None => I q' | Some c => E c q' end.

  Lemma t_ret : triple ret.
  Proof. intros q r q' Hq H. inversion H. subst. exact Hq. Qed.

  Lemma t_fail c : (forall q, I q -> E c q) -> triple (fail c).
  Proof. intros Hc q r q' Hq H. inversion H. subst. exact (Hc _ Hq). Qed.

  Lemma t_seq a b : triple a -> triple b -> triple (seq a b).
  Proof.
    intros Ha Hb q r q' Hq H. apply seq_inv in H. destruct H as [(c & H & ->)|(q1 & H1 & H2)].
    - exact (Ha _ _ _ Hq H).
    - exact (Hb _ _ _ (Ha _ _ _ Hq H1) H2).
  Qed.

  Hypothesis t_finalize : triple (finalize fm).
  Hypothesis t_push : forall d q, I q -> (batch <=? length (q_pending q)) = false -> I (snd (push d q)).
  Hypothesis t_fresh : forall d q, I q -> I (snd (push d (fresh q))).
  Hypothesis t_log_get : forall i id, triple (log_get i id).
  Hypothesis E_not_found : forall q, I q -> E code_not_found q.

  Lemma t_add o : triple (add batch fm o).
  Proof.
    destruct o as [w|]; [|apply t_ret]. intros q r q' Hq. destruct (wd_ok w) eqn:Hw.
    - rewrite (add_eq _ _ _ _ Hw). destruct (batch <=? length (q_pending q)) eqn:Hb.
      + apply (t_seq _ _ t_finalize); [|exact Hq].
        intros q1 r1 q2 Hq1 H. inversion H. apply t_fresh, Hq1.
      + intro H. inversion H. apply t_push; assumption.
    - rewrite (add_malformed _ _ _ _ Hw). intro H. inversion H. subst. apply E_not_found, Hq.
  Qed.

  Lemma t_add_all l : triple (add_all batch fm l).
  Proof. induction l; cbn [add_all]; [apply t_ret|apply t_seq; [apply t_add|assumption]]. Qed.

  Lemma t_add_outdirs l : triple (add_outdirs batch fm l).
  Proof.
    induction l; cbn [add_outdirs]; [apply t_ret|].
    apply t_seq; [apply t_add|apply t_seq; [apply t_add|assumption]].
  Qed.

  Definition fits_or_invalid (it : directory * Z) : Prop :=
    (maxmsg < snd it)%Z -> forall q, I q -> E code_invalid q.

  Lemma t_visit_dir r it : fits_or_invalid it -> triple (visit_dir batch maxmsg fm r it).
  Proof.
    intro Hit. unfold visit_dir. destruct (Z.ltb maxmsg (snd it)) eqn:L.
    - apply t_fail, Hit, Z.ltb_lt, L.
    - apply t_seq; [apply t_add_all|destruct r; [apply t_add_all|apply t_ret]].
  Qed.

  Lemma t_visit_items r items :
    Forall fits_or_invalid items -> triple (visit_items batch maxmsg fm r items).
  Proof.
    induction 1; cbn [visit_items]; [apply t_ret|apply t_seq; [apply t_visit_dir|]; assumption].
  Qed.

  Definition tree_ok (g : tget) : Prop :=
    Forall fits_or_invalid (tg_items g)
    /\ (forall c q, E c q -> E (prefer (tg_term g) c) q)
    /\ (forall c q, tg_end g = Some c -> I q -> E (prefer (tg_term g) c) q).

  Lemma t_visit_tree od g : tree_ok g -> triple (visit_tree batch maxmsg fm od g).
  Proof.
    intros (Hit & Hp & He) q r q' Hq H. unfold visit_tree in H.
    pose proof (t_visit_items (is_some (od_root od)) _ Hit q) as Hv.
    destruct (visit_items batch maxmsg fm (is_some (od_root od)) (tg_items g) q) as [[c|] q1].
    - inversion H. subst. exact (Hp _ _ (Hv _ _ Hq eq_refl)).
    - specialize (Hv _ _ Hq eq_refl).
      destruct (tg_end g) as [c|]; inversion H; subst; [exact (He _ _ eq_refl Hv)|exact Hv].
  Qed.

  Hypothesis gets_ok : forall i, tree_ok (nth i gets get_not_found).

  Lemma t_tree_loop dirs : forall i rem, triple (tree_loop batch maxmsg fm gets i rem dirs).
  Proof.
    induction dirs as [|od t IH]; intros i rem; cbn [tree_loop]; [apply t_ret|].
    destruct (derive (od_tree od)) as [w|]; [|apply t_fail, E_not_found].
    destruct (Z.ltb rem (wd_size w)); [apply t_fail, E_not_found|].
    apply t_seq; [apply t_log_get|apply t_seq; [apply t_visit_tree, gets_ok|apply IH]].
  Qed.

  Lemma t_check_action maxtree ar : triple (check_action batch maxmsg maxtree fm gets ar).
  Proof.
    unfold check_action. apply t_seq; [apply t_add_all|]. apply t_seq; [apply t_add_outdirs|].
    apply t_seq; [apply t_add|]. apply t_seq; [apply t_add|].
    apply t_seq; [apply t_tree_loop|apply t_finalize].
  Qed.

  Lemma t_decorator_get maxtree size ar r q :
    I init_q -> E code_invalid init_q ->
    decorator_get batch maxmsg maxtree fm gets (AcOk size ar) = (r, q) ->
    match r with None => I q | Some c => E c q end.
  Proof.
    intros Hi He. unfold decorator_get. destruct (Z.ltb maxmsg size).
    - intro H. inversion H. subst. exact He.
    - apply t_check_action, Hi.
  Qed.
End Triple.

(** ** Invariant of every run, successful or not: the log records the
    oracle's answers, and batches respect the batch size. *)
Section Inv.
  Variable batch : nat.
  Variable fm : nat -> list nat -> fm_answer.

  Definition inv (q : qstate) : Prop :=
    (forall k b a, In (CFm k b a) (q_log q) -> a = fm k b /\ (1 <= batch -> length b <= batch))
    /\ (1 <= batch -> length (q_pending q) <= batch).

  Lemma inv_triple a : (forall q r q', inv q -> a q = (r, q') -> inv q') -> triple inv (fun _ => inv) a.
  Proof. intros H q r q' Hq Ha. destruct r; exact (H _ _ _ Hq Ha). Qed.

  Lemma p_finalize : triple inv (fun _ => inv) (finalize fm).
  Proof.
    apply inv_triple. intros q r q' [I1 I2] H. rewrite finalize_eq in H. inversion H. split; cbn.
    - intros k b a [E|Hin]; [inversion E; subst; auto|auto].
    - exact I2.
  Qed.

  Lemma p_push d q : inv q -> (batch <=? length (q_pending q)) = false -> inv (snd (push d q)).
  Proof.
    intros [I1 I2] Hb. split; [exact I1|]. intros _. apply Nat.leb_gt in Hb.
    exact (Nat.le_trans _ _ _ (set_add_length d (q_pending q)) Hb).
  Qed.

  Lemma p_fresh d q : inv q -> inv (snd (push d (fresh q))).
  Proof. intros [I1 _]. split; [exact I1|]. intro Hb. exact Hb. Qed.

  Lemma p_log_get i id : triple inv (fun _ => inv) (log_get i id).
  Proof.
    apply inv_triple. intros q r q' [I1 I2] H. inversion H. subst. split; cbn; [|exact I2].
    intros k b a [E|Hin]; [discriminate|auto].
  Qed.

  Lemma inv_init : inv init_q.
  Proof. split; cbn; [intros k b a []|lia]. Qed.

  Lemma check_inv maxmsg maxtree gets ar r q : check batch maxmsg maxtree fm gets ar = (r, q) -> inv q.
  Proof.
    intro H.
    assert (T : triple inv (fun _ => inv) (check_action batch maxmsg maxtree fm gets ar)).
    { apply (t_check_action batch maxmsg fm gets inv (fun _ => inv) p_finalize p_push p_fresh p_log_get).
      - intros q' Hq'. exact Hq'.
      - intro i. split; [apply Forall_forall; intros it _ _ q' Hq'; exact Hq'|auto]. }
    specialize (T _ _ _ inv_init H). destruct r; exact T.
  Qed.
End Inv.

(** ** Only NOT_FOUND when nothing but incompleteness is wrong *)
Section NotFound.
  Variable batch : nat.
  Variables maxmsg maxtree : Z.
  Variable fm : nat -> list nat -> fm_answer.
  Variable gets : list tget.
  Hypothesis fm_no_error : forall k b c, fm k b <> FmErr c.
  Hypothesis gets_benign : forall i, benign maxmsg (nth i gets get_not_found).

  Local Notation only_nf := (triple (fun _ => True) (fun c _ => c = code_not_found)).

  Lemma n_finalize : only_nf (finalize fm).
  Proof.
    intros q r q' _. rewrite finalize_eq. intro H. inversion H.
    destruct (fm (q_fmcalls q) (q_pending q)) as [[|x m]|c] eqn:E;
      [exact I|reflexivity|destruct (fm_no_error _ _ _ E)].
  Qed.

  Lemma benign_ok g : benign maxmsg g -> tree_ok maxmsg (fun _ => True) (fun c _ => c = code_not_found) g.
  Proof.
    intros [Hs He]. split; [|split].
    - eapply Forall_impl; [|exact Hs]. intros it Hle Hlt. destruct (proj2 (Z.nlt_ge _ _) Hle Hlt).
    - intros c q ->. destruct He as [[_ ->]|[_ ->]]; reflexivity.
    - intros c q Hc _. destruct He as [[E _]|[_ ->]]; [congruence|reflexivity].
  Qed.

  Lemma check_only_not_found ar c q :
    check batch maxmsg maxtree fm gets ar = (Some c, q) -> c = code_not_found.
  Proof.
    apply (t_check_action batch maxmsg fm gets (fun _ => True) (fun c _ => c = code_not_found)
             n_finalize (fun _ _ _ _ => I) (fun _ _ _ => I)); try exact I.
    - intros i id q0 r q' _ H. inversion H. exact I.
    - reflexivity.
    - intro i. apply benign_ok, gets_benign.
  Qed.
End NotFound.

Theorem check_complete_only_if_all_present :
  forall batch maxmsg maxtree fm gets ar q,
    check batch maxmsg maxtree fm gets ar = (None, q) ->
    forall d, In d (referenced ar gets) ->
    exists k b m, In (CFm k b (FmMissing m)) (q_log q) /\ fm k b = FmMissing m /\ In d b /\ ~ In d m.
Proof.
  intros batch maxmsg maxtree fm gets ar q H d Hd.
  destruct (check_ok_flushed _ _ _ _ _ _ _ H d Hd) as (b & (k & Hk) & Hb).
  destruct (check_inv _ _ _ _ _ _ _ _ H) as [I _]. destruct (I _ _ _ Hk) as [E _].
  exists k, b, []. repeat split; auto.
Qed.

Theorem get_every_batch_bounded :
  forall batch maxmsg maxtree fm gets ac r q,
    1 <= batch ->
    decorator_get batch maxmsg maxtree fm gets ac = (r, q) ->
    forall k b a, In (CFm k b a) (q_log q) -> length b <= batch /\ a = fm k b.
Proof.
  intros batch maxmsg maxtree fm gets ac r q Hb H k b a Hin. unfold decorator_get in H.
  assert (I : inv batch fm q).
  { destruct ac as [c|size ar]; [inversion H; apply inv_init|].
    destruct (Z.ltb maxmsg size); [inversion H; apply inv_init|]. eapply check_inv; eauto. }
  destruct I as [I _]. destruct (I _ _ _ Hin). auto.
Qed.

(** Missing object: whenever the CAS is asked about [d] it reports it missing. *)
Definition always_missing (fm : nat -> list nat -> fm_answer) (d : nat) : Prop :=
  forall k b, In d b -> exists m, fm k b = FmMissing m /\ In d m.

Theorem check_incomplete_never_returned :
  forall batch maxmsg maxtree fm gets ar d,
    In d (referenced ar gets) -> always_missing fm d ->
    fst (check batch maxmsg maxtree fm gets ar) <> None.
Proof.
  intros batch maxmsg maxtree fm gets ar d Hd Hm.
  destruct (check batch maxmsg maxtree fm gets ar) as [[c|] q] eqn:H; cbn; [congruence|].
  destruct (check_complete_only_if_all_present _ _ _ _ _ _ _ H d Hd) as (k & b & m & _ & Hfm & Hb & Hnm).
  destruct (Hm k b Hb) as (m' & Hfm' & Hin). rewrite Hfm in Hfm'. inversion Hfm'. subst. contradiction.
Qed.

Theorem check_incomplete_is_not_found :
  forall batch maxmsg maxtree fm gets ar d,
    (forall k b c, fm k b <> FmErr c) ->
    (forall i, benign maxmsg (nth i gets get_not_found)) ->
    In d (referenced ar gets) -> always_missing fm d ->
    fst (check batch maxmsg maxtree fm gets ar) = Some code_not_found.
Proof.
  intros batch maxmsg maxtree fm gets ar d Hfm Hg Hd Hm.
  pose proof (check_incomplete_never_returned batch maxmsg maxtree fm gets ar d Hd Hm) as Hn.
  destruct (check batch maxmsg maxtree fm gets ar) as [[c|] q] eqn:H; cbn in *; [|congruence].
  f_equal. eapply check_only_not_found; eauto.
Qed.

(** A malformed digest anywhere in the ActionResult, or an absent tree digest. *)
Theorem check_malformed_is_error :
  forall batch maxmsg maxtree fm gets ar,
    (Exists malformed (ar_files ar)
     \/ Exists (fun od => malformed (od_tree od) \/ malformed (od_root od) \/ od_tree od = None) (ar_dirs ar)
     \/ malformed (ar_stdout ar) \/ malformed (ar_stderr ar)) ->
    fst (check batch maxmsg maxtree fm gets ar) <> None.
Proof.
  intros batch maxmsg maxtree fm gets ar H. unfold check, check_action.
  destruct H as [H|[H|[H|H]]].
  - apply f_seq_l, f_add_all, H.
  - apply Exists_exists in H. destruct H as (od & Hin & [H|[H|H]]).
    + apply f_seq_r, f_seq_l, f_add_outdirs, Exists_exists. exists od. auto.
    + apply f_seq_r, f_seq_l, f_add_outdirs, Exists_exists. exists od. auto.
    + apply f_seq_r, f_seq_r, f_seq_r, f_seq_r, f_seq_l.
      destruct (In_nth_error _ _ Hin) as (j & Hj).
      eapply f_tree_loop; [exact Hj|]. left. unfold derive. rewrite H. reflexivity.
  - apply f_seq_r, f_seq_r, f_seq_l, f_add, H.
  - apply f_seq_r, f_seq_r, f_seq_r, f_seq_l, f_add, H.
Qed.

(** The tree of output directory [j] is unreadable / corrupted (the visit
    does not end cleanly), holds a malformed digest among what is checked, or
    holds a Directory larger than the maximum message size. *)
Theorem check_tree_error_is_error :
  forall batch maxmsg maxtree fm gets ar j od,
    nth_error (ar_dirs ar) j = Some od ->
    bad_tget maxmsg od (nth j gets get_not_found) ->
    fst (check batch maxmsg maxtree fm gets ar) <> None.
Proof.
  intros batch maxmsg maxtree fm gets ar j od Hj Hbad. unfold check, check_action.
  apply f_seq_r, f_seq_r, f_seq_r, f_seq_r, f_seq_l. eapply f_tree_loop; [exact Hj|]. right. exact Hbad.
Qed.

Theorem check_tree_budget :
  forall batch maxmsg maxtree fm gets ar,
    (ar_dirs ar <> [] \/ 0 <= maxtree)%Z ->
    (maxtree < tree_sizes (ar_dirs ar))%Z ->
    fst (check batch maxmsg maxtree fm gets ar) <> None.
Proof.
  intros batch maxmsg maxtree fm gets ar Hne Hlt. unfold check, check_action.
  apply f_seq_r, f_seq_r, f_seq_r, f_seq_r, f_seq_l, f_tree_budget; assumption.
Qed.

(** Errors of [check] are what the decorator returns (never the result). *)
Theorem get_error_iff_check_error :
  forall batch maxmsg maxtree fm gets size ar,
    fst (check batch maxmsg maxtree fm gets ar) <> None ->
    fst (decorator_get batch maxmsg maxtree fm gets (AcOk size ar)) <> None.
Proof.
  intros batch maxmsg maxtree fm gets size ar H. unfold decorator_get.
  destruct (Z.ltb maxmsg size); [cbn; congruence|exact H].
Qed.

Lemma get_ok_check batch maxmsg maxtree fm gets size ar q :
  decorator_get batch maxmsg maxtree fm gets (AcOk size ar) = (None, q) ->
  check batch maxmsg maxtree fm gets ar = (None, q).
Proof. unfold decorator_get. destruct (Z.ltb maxmsg size); [discriminate|exact (fun H => H)]. Qed.
