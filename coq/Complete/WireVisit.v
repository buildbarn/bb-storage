(** C13, byte level: util.VisitProtoBytesFields (pkg/util/proto.go) over a
    stream that delivers the bytes [bs] and then ends with [term]
    ([None] = io.EOF, [Some c] = a read error with gRPC code [c]).

    Definitions only.  The visitor's callback cannot influence where the next
    tag is read (the unread remainder of a field is discarded), so the model
    computes the list of *complete* top-level fields handed to the callback
    together with the outcome the visitor reaches when no callback fails; a
    consumer that fails at a field stops there (Complete/Completeness.v).

    protowire.ConsumeVarint / ConsumeTag are modelled exactly (up to ten
    bytes, non-canonical encodings accepted, 10th byte must be < 2, field
    number in 1..2^31-1); bufio.Reader.Peek(32) is modelled by: fewer than 32
    bytes left and the stream ends in an error => that error is returned
    before anything is parsed. *)
From Coq Require Import List NArith ZArith Bool Lia.
Import ListNotations.
Local Open Scope N_scope.

Inductive vres := VOk (v : N) (n : nat) | VTrunc | VOverflow.

(** [varint k shift bs]: [k] bytes may still be consumed (10 initially). *)
Fixpoint varint (k : nat) (shift : N) (bs : list N) : vres :=
  match k with
  | O => VOverflow
  | S k' =>
      match bs with
      | [] => VTrunc
      | b :: t =>
          match k' with
          | O => if b <? 2 then VOk (N.shiftl b shift) 1 else VOverflow
          | S _ =>
              if b <? 128 then VOk (N.shiftl b shift) 1
              else match varint k' (shift + 7) t with
                   | VOk v n => VOk (N.shiftl (b - 128) shift + v) (S n)
                   | e => e
                   end
          end
      end
  end.

Definition consume_varint (bs : list N) : vres := varint 10 0 bs.

Inductive tres := TOk (num typ : N) (n : nat) | TErr.

Definition max_int32 : N := 2147483647.
Definition max_int64 : N := 9223372036854775807.

Definition consume_tag (bs : list N) : tres :=
  match consume_varint bs with
  | VOk v n =>
      let num := N.shiftr v 3 in
      if (max_int32 <? num) || (num <? 1) then TErr else TOk num (N.land v 7) n
  | _ => TErr
  end.

(** gRPC codes used here. *)
Definition code_invalid_argument : Z := 3.

Record visit := mkVisit { v_num : N; v_off : N; v_size : N; v_payload : list N }.
Inductive wres := WOk | WErr (c : Z) | WFuel.

Definition bytes_type : N := 2.

Fixpoint wire_visit (fuel : nat) (bs : list N) (term : option Z) (off : N) : list visit * wres :=
  match fuel with
  | O => ([], WFuel)
  | S f =>
      (* header, err := br.Peek(32) *)
      match (if (length bs <? 32)%nat then term else None) with
      | Some c => ([], WErr c)
      | None =>
          match bs with
          | [] => ([], WOk)
          | _ :: _ =>
              let header := firstn 32 bs in
              match consume_tag header with
              | TErr => ([], WErr code_invalid_argument)
              | TOk num typ ntag =>
                  if negb (typ =? bytes_type) then ([], WErr code_invalid_argument)
                  else
                    match consume_varint (skipn ntag header) with
                    | VOk size nlen =>
                        if max_int64 - off <? size then ([], WErr code_invalid_argument)
                        else
                          let nh := (ntag + nlen)%nat in
                          let rest := skipn nh bs in
                          let off' := off + N.of_nat nh in
                          if N.of_nat (length rest) <? size then
                            (* the field ends prematurely: the callback's reader or
                               br.Discard reports it; a read error wins over EOF *)
                            ([], WErr (match term with Some c => c | None => code_invalid_argument end))
                          else
                            let payload := firstn (N.to_nat size) rest in
                            let (vs, r) := wire_visit f (skipn (N.to_nat size) rest) term (off' + size) in
                            (mkVisit num off' size payload :: vs, r)
                    | _ => ([], WErr code_invalid_argument)
                    end
              end
          end
      end
  end.

(** Every iteration consumes at least two bytes, so this fuel suffices
    ([wire_visit_terminates] in WireVisitProofs.v). *)
Definition wire_visit_all (bs : list N) (term : option Z) : list visit * wres :=
  wire_visit (S (length bs)) bs term 0.

(** The canonical encoder (protowire.AppendVarint / AppendTag / AppendBytes),
    used to state the visitor's specification. *)
Fixpoint encode_varint (fuel : nat) (v : N) : list N :=
  match fuel with
  | O => [v]
  | S f => if v <? 128 then [v] else (v mod 128 + 128) :: encode_varint f (v / 128)
  end.
Definition enc_varint (v : N) : list N := encode_varint 9 v.

Definition encode_field (num : N) (payload : list N) : list N :=
  enc_varint (num * 8 + bytes_type) ++ enc_varint (N.of_nat (length payload)) ++ payload.

Fixpoint encode_fields (fs : list (N * list N)) : list N :=
  match fs with
  | [] => []
  | (num, p) :: t => encode_field num p ++ encode_fields t
  end.
