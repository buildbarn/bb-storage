(** C17, replicator decorators: the running maxima
    [maxkey] / [maxall] that the harness reports (concurrent calls of the base
    replicator per key / overall, taken when the decorator enters the base
    replicator) obey the bounds of the property, for every trace.

    The theorems of Compose/ReplicatorsProofs.v bound the number of callers
    whose program counter is inside a copy ([copies_of], [copies]); the maxima
    count callers whose [bset] is set.  The link is the invariant [wfb]: a
    caller has its [bset] set only while inside a copy, and for the
    deduplicating replicator the set is the key being copied.  (For the
    concurrency-limiting replicator this needs the semaphore's FIFO to hold
    only callers that wait, without duplicates.)  The bounds then follow
    from the invariants [dinv], [linv], [qinv] already proved there. *)
From Coq Require Import List ZArith NArith Bool Arith Lia Permutation.
From BBS Require Import Common.ListX Compose.ExistenceCache Compose.ExistenceCacheProofs
  Compose.Replicators Compose.ReplicatorsProofs.
Import ListNotations.
Local Open Scope nat_scope.

Definition wfb (m : mode) (t : thread) : Prop :=
  forall ds, bset t = Some ds ->
    match tpc t with
    | Get d rest _ | Put d _ rest _ => (exists pre, ds = pre ++ d :: rest) /\ (m = MDedup -> ds = [d])
    | _ => False
    end.

Definition bound_ok (m : mode) (s : cstate) : Prop :=
  match m with
  | MDedup => maxkey s <= 1
  | MLimit k => maxall s <= k
  | MQueued _ _ => maxall s <= 1
  end.

Record Inv (m : mode) (s : cstate) : Prop := mkInv {
  i_wfb : Forall (wfb m) (thr s);
  i_nd : NoDup (semq s);
  i_q : forall j tj, In j (semq s) -> nth_error (thr s) j = Some tj -> tpc tj = WaitSem;
  i_b : bound_ok m s }.

Lemma upd_same {T} i (t : T) l : nth_error l i = Some t -> upd i t l = l.
Proof. revert i. induction l as [|h tl IH]; intros [|i] H; cbn in *; try discriminate; [inversion H; reflexivity|rewrite IH; auto]. Qed.

Lemma inv_wfb m s i t : Inv m s -> nth_error (thr s) i = Some t -> wfb m t.
Proof. intros I H. apply nth_error_In in H. pose proof (i_wfb _ _ I) as F. rewrite Forall_forall in F. apply F, H. Qed.

Lemma bound_ok_eq m s s' : maxkey s' = maxkey s -> maxall s' = maxall s -> bound_ok m s -> bound_ok m s'.
Proof. intros A B. unfold bound_ok. rewrite A, B. auto. Qed.

Lemma inv_upd m s s' i t x : Inv m s -> nth_error (thr s) i = Some t -> (tpc t = WaitSem -> tpc x = WaitSem) ->
  thr s' = upd i x (thr s) -> semq s' = semq s -> bound_ok m s' -> wfb m x -> Inv m s'.
Proof.
  intros [W N Q B] Ht Hw Hthr Hq Hb Hx. constructor.
  - rewrite Hthr. apply Forall_upd; assumption.
  - rewrite Hq. exact N.
  - intros j tj Hj Hn. rewrite Hq in Hj. rewrite Hthr in Hn. apply nth_error_upd_inv in Hn.
    destruct Hn as [[-> ->]|[_ Hn]]; [apply Hw; eapply Q; eassumption|eapply Q; eassumption].
  - exact Hb.
Qed.

Lemma inv_same m s s' : Inv m s -> thr s' = thr s -> semq s' = semq s -> bound_ok m s' -> Inv m s'.
Proof. intros [W N Q B] Ht Hq Hb. constructor; rewrite ?Ht, ?Hq; assumption. Qed.

Lemma inv_enqueue m s s' i t x : Inv m s -> nth_error (thr s) i = Some t -> tpc t <> WaitSem -> tpc x = WaitSem ->
  thr s' = upd i x (thr s) -> semq s' = semq s ++ [i] -> bound_ok m s' -> wfb m x -> Inv m s'.
Proof.
  intros [W N Q B] Ht Hw Hxw Hthr Hq Hb Hx.
  assert (Hni : ~ In i (semq s)) by (intros X; apply Hw; eapply Q; eassumption).
  constructor.
  - rewrite Hthr. apply Forall_upd; assumption.
  - rewrite Hq. apply Permutation_NoDup with (l := i :: semq s); [apply Permutation_cons_append|constructor; assumption].
  - intros j tj Hj Hn. rewrite Hq in Hj. rewrite Hthr in Hn. apply nth_error_upd_inv in Hn.
    destruct Hn as [[-> ->]|[Hne Hn]]; [exact Hxw|].
    apply in_app_or in Hj. destruct Hj as [Hj|[Hj|[]]]; [eapply Q; eassumption|congruence].
  - exact Hb.
Qed.

Lemma inv_notify m k : forall fuel s, Inv m s -> Inv m (notify fuel k s).
Proof.
  induction fuel as [|f IH]; intros s I; cbn [notify]; [exact I|].
  destruct (semq s) as [|j q'] eqn:Eq; [exact I|]. destruct (Nat.ltb (cur s) k); [|exact I].
  destruct (nth_error (thr s) j) as [tj|] eqn:Hj; [|exact I]. apply IH.
  destruct I as [W N Q B]. rewrite Eq in N, Q. inversion N as [|? ? Hnj Nq]; subst.
  assert (Hpj : tpc tj = WaitSem) by (apply (Q j tj); [left; reflexivity|exact Hj]).
  constructor; cbn [thr semq].
  - apply Forall_upd; [exact W|]. intros ds Hb. cbn [bset] in Hb.
    pose proof (inv_wfb m s j tj (mkInv m s W ltac:(rewrite Eq; exact N) ltac:(rewrite Eq; exact Q) B) Hj ds Hb) as X.
    rewrite Hpj in X. contradiction.
  - exact Nq.
  - intros j' tj' Hin Hn. apply nth_error_upd_inv in Hn. destruct Hn as [[-> ->]|[_ Hn]]; [contradiction|].
    apply (Q j' tj'); [right; exact Hin|exact Hn].
  - exact B.
Qed.

Lemma inv_sem_release m k s : Inv m s -> Inv m (sem_release k s).
Proof. intros I. unfold sem_release. apply inv_notify. eapply inv_same; [exact I|reflexivity|reflexivity|apply (i_b _ _ I)]. Qed.

Lemma wfb_none m p td c : wfb m (mkthr p td c None).
Proof. intros ds Hb. discriminate. Qed.

(** The base replicator returned: the caller's [bset] is cleared. *)
Lemma inv_finish_base m i t t' e k c s s1 y : Inv m s -> nth_error (thr s) i = Some t -> tpc t <> WaitSem ->
  thr s1 = upd i y (thr s) -> semq s1 = semq s -> bound_ok m s1 ->
  Inv m (finish_base m i t' e k c s1).
Proof.
  intros I Ht Hw Hthr Hq Hb.
  assert (U : forall p s2, thr s2 = upd i (mkthr p (todo t') (cancelled t') None) (thr s1) -> semq s2 = semq s1 ->
              bound_ok m s2 -> Inv m s2).
  { intros p s2 E1 E2 B. eapply inv_upd with (i := i) (t := t);
      [exact I|exact Ht|intros X; contradiction|rewrite E1, Hthr, upd_upd; reflexivity|rewrite E2; exact Hq|exact B|apply wfb_none]. }
  destruct m as [|lim|size dur]; cbn [finish_base]; [|apply inv_sem_release|]; (eapply U; [reflexivity|reflexivity|exact Hb]).
Qed.

(** The decorator enters the base replicator. *)
Lemma inv_begin_base m i t ds e k s s0 : Inv m s -> nth_error (thr s) i = Some t -> tpc t <> WaitSem ->
  thr s0 = thr s -> semq s0 = semq s -> (m = MDedup -> exists d, ds = [d]) ->
  bound_ok m (note_max ds (set_thr i (mkthr (tpc t) (todo t) (cancelled t) (Some ds)) s0)) ->
  Inv m (begin_base m i t ds e k s0).
Proof.
  intros I Ht Hw Hthr Hq Hd Hb. unfold begin_base. destruct ds as [|d rest].
  - eapply inv_finish_base with (t := t); [exact I|exact Ht|exact Hw|cbn [thr note_max set_thr]; rewrite Hthr; reflexivity|exact Hq|exact Hb].
  - eapply inv_upd with (i := i) (t := t); [exact I|exact Ht|intros X; contradiction
      |cbn [thr note_max set_thr]; rewrite Hthr, upd_upd; reflexivity|exact Hq|exact Hb|].
    intros ds Hs. cbn [bset tpc] in *. inversion Hs; subst ds. split; [exists []; reflexivity|].
    intros Hm. destruct (Hd Hm) as [d0 E]. inversion E; subst. reflexivity.
Qed.

Lemma count_zero {T} (p : T -> bool) l : (forall x, In x l -> p x = false) -> count p l = 0.
Proof.
  unfold count. induction l as [|a r IH]; intros H; cbn; [reflexivity|].
  rewrite (H a (or_introl eq_refl)). apply IH. intros x Hx. apply H. right. exact Hx.
Qed.

Lemma wfb_in_copy m t : wfb m t -> in_base t = true -> in_copy t = true.
Proof.
  intros W H. unfold in_base in H. destruct (bset t) as [ds|] eqn:B; [|discriminate].
  specialize (W ds B). unfold in_copy. destruct (tpc t); try contradiction; reflexivity.
Qed.

Lemma in_base_le_in_copy m s : Inv m s -> count in_base (thr s) <= count in_copy (thr s).
Proof.
  intros I. apply count_le_in. intros x Hx. pose proof (i_wfb _ _ I) as F. rewrite Forall_forall in F.
  apply (wfb_in_copy m), F, Hx.
Qed.

Lemma not_copy_not_base m t : wfb m t -> in_copy t = false -> in_base t = false.
Proof. intros W H. destruct (in_base t) eqn:B; [|reflexivity]. rewrite (wfb_in_copy m t W B) in H. discriminate. Qed.

(** Entering the base replicator from outside a copy adds one to the callers inside it. *)
Lemma count_all_enter m s s0 i t ds : Inv m s -> nth_error (thr s) i = Some t -> in_copy t = false -> thr s0 = thr s ->
  count_all (set_thr i (mkthr (tpc t) (todo t) (cancelled t) (Some ds)) s0) <= count in_copy (thr s) + 1.
Proof.
  intros I Ht Hc Hthr. unfold count_all. cbn [thr set_thr]. rewrite Hthr.
  pose proof (count_upd in_base i (mkthr (tpc t) (todo t) (cancelled t) (Some ds)) (thr s) t Ht) as C.
  pose proof (in_base_le_in_copy m s I) as L. unfold count in *.
  rewrite (not_copy_not_base m t (inv_wfb m s i t I Ht) Hc) in C. cbn [in_base bset b2n] in C. lia.
Qed.

Definition aux (m : mode) (s : cstate) : Prop :=
  match m with
  | MDedup => dinv s
  | MLimit k => linv k s
  | MQueued _ _ => qinv s
  end.

Ltac nocopy Hw Hp :=
  let ds := fresh "ds" in let Hb := fresh "Hb" in
  intros ds Hb; cbn [bset] in Hb; specialize (Hw ds Hb); rewrite Hp in Hw; contradiction.

Ltac updi I i t Ht Hp :=
  eapply inv_upd with (i := i) (t := t);
  [exact I|exact Ht|rewrite Hp; let Z := fresh in (intros Z; discriminate Z)|reflexivity|reflexivity|apply (i_b _ _ I)|].

Lemma wfb_next_after_key m t : wfb m (next_after_key t).
Proof. unfold next_after_key. destruct (todo t) as [|? [|? ?]]; apply wfb_none. Qed.

Lemma step_inv m s e s' : Inv m s -> aux m s -> step m s e = Some s' -> Inv m s'.
Proof.
  intros I X H. destruct e as [i|i f|i|dt|i alt]; cbn [step] in H.
  - (* EStart *)
    destruct (nth_error (thr s) i) as [t|] eqn:Ht; [|discriminate].
    pose proof (inv_wfb m s i t I Ht) as Hw.
    destruct (tpc t) eqn:Hp; try discriminate. injection H as <-.
    updi I i t Ht Hp. nocopy Hw Hp.
  - (* ERel *)
    destruct (nth_error (thr s) i) as [t|] eqn:Ht; [|discriminate].
    pose proof (inv_wfb m s i t I Ht) as Hw.
    assert (Hfin : tpc t <> WaitSem -> forall e d c s1, thr s1 = thr s -> semq s1 = semq s -> bound_ok m s1 ->
                   Inv m (finish_base m i t e d c s1)).
    { intros Hn e d c s1 E1 E2 B. eapply inv_finish_base with (t := t) (s := s) (y := t);
        [exact I|exact Ht|exact Hn|rewrite E1; symmetry; apply upd_same, Ht|exact E2|exact B]. }
    destruct (tpc t) eqn:Hp; try discriminate.
    + (* Fm *)
      destruct m as [|lim|size dur]; try discriminate.
      destruct (negb (f =? 0)%Z); [injection H as <-; updi I i t Ht Hp; nocopy Hw Hp|].
      destruct (memn k (snk s)); injection H as <-; [updi I i t Ht Hp; nocopy Hw Hp|].
      refine (inv_begin_base MDedup i t [k] e k s s I Ht _ eq_refl eq_refl _ _);
        [rewrite Hp; discriminate|intros _; exists k; reflexivity|].
      (* at most one caller per key in the base replicator *)
      cbn [bound_ok note_max maxkey fold_right]. apply Nat.max_lub; [apply (i_b _ _ I)|].
      unfold count_key. cbn [thr set_thr].
      set (p := fun t0 : thread => match bset t0 with Some ds => memn k ds | None => false end).
      pose proof (count_upd p i (mkthr (tpc t) (todo t) (cancelled t) (Some [k])) (thr s) t Ht) as C.
      assert (Hpt : p t = false).
      { unfold p. destruct (bset t) as [ds|] eqn:B; [|reflexivity]. specialize (Hw ds B). rewrite Hp in Hw. contradiction. }
      assert (Hz : count p (thr s) = 0).
      { apply count_zero. intros x Hx. destruct (p x) eqn:Px; [|reflexivity]. exfalso.
        apply In_nth_error in Hx. destruct Hx as [j Hj].
        pose proof (inv_wfb MDedup s j x I Hj) as Wx. unfold p in Px.
        destruct (bset x) as [ds|] eqn:B; [|discriminate]. specialize (Wx ds B).
        cbn [aux] in X.
        assert (Ox : owns x = Some k).
        { unfold owns. destruct (tpc x); try contradiction; destruct Wx as [_ Wd]; rewrite (Wd eq_refl) in Px;
            cbn in Px; rewrite orb_false_r in Px; apply Nat.eqb_eq in Px; subst; reflexivity. }
        assert (Ot : owns t = Some k) by (unfold owns; rewrite Hp; reflexivity).
        pose proof (d_uniq _ X i j t x k Ht Hj Ot Ox) as E. subst j. rewrite Ht in Hj. inversion Hj; subst x.
        rewrite Hp in Wx. contradiction. }
      unfold count in *. rewrite Hpt, Hz in C. unfold p at 2 in C. cbn [bset memn existsb] in C.
      rewrite Nat.eqb_refl in C. cbn [orb b2n] in C. fold p. lia.
    + (* Get *)
      injection H as <-. updi I i t Ht Hp.
      intros ds Hb. cbn [bset tpc] in *. specialize (Hw ds Hb). rewrite Hp in Hw. exact Hw.
    + (* Put *)
      destruct ((if negb (f =? 0)%Z then f else b) =? 0)%Z.
      * destruct rest as [|d' rest']; injection H as <-.
        -- apply Hfin; [discriminate|reflexivity|reflexivity|apply (i_b _ _ I)].
        -- updi I i t Ht Hp. intros ds Hb. cbn [bset tpc] in *. specialize (Hw ds Hb). rewrite Hp in Hw.
           destruct Hw as [[pre E] Hd]. split.
           ++ exists (pre ++ [d]). rewrite <- app_assoc. exact E.
           ++ intros Hm. specialize (Hd Hm). subst ds. apply (f_equal (@length nat)) in Hd.
              rewrite app_length in Hd. cbn in Hd. lia.
      * injection H as <-.
        apply Hfin; [discriminate|reflexivity|reflexivity|apply (i_b _ _ I)].
  - (* ECancel *)
    destruct (nth_error (thr s) i) as [t|] eqn:Ht; [|discriminate].
    pose proof (inv_wfb m s i t I Ht) as Hw.
    destruct (cancelled t); [discriminate|]. injection H as <-.
    eapply inv_upd with (i := i) (t := t) (x := mkthr (tpc t) (todo t) true (bset t));
      [exact I|exact Ht|intros E; exact E|reflexivity|reflexivity|apply (i_b _ _ I)|].
    intros ds Hb. cbn [bset tpc] in *. exact (Hw ds Hb).
  - (* EAdv *)
    injection H as <-. eapply inv_same; [exact I|reflexivity|reflexivity|apply (i_b _ _ I)].
  - (* ETau *)
    destruct (nth_error (thr s) i) as [t|] eqn:Ht; [|discriminate].
    pose proof (inv_wfb m s i t I Ht) as Hw.
    destruct (tpc t) eqn:Hp; destruct alt; try discriminate.
    + (* Idle *)
      destruct m as [|lim|size dur].
      * destruct (todo t) as [|k rest] eqn:Htd; [discriminate|].
        destruct (lookup_key k (inflight s)) as [e0|]; injection H as <-; updi I i t Ht Hp; nocopy Hw Hp.
      * destruct (cancelled t); [injection H as <-; updi I i t Ht Hp; nocopy Hw Hp|].
        destruct (Nat.ltb (cur s) lim && match semq s with [] => true | _ => false end) eqn:E; injection H as <-.
        -- apply andb_prop in E. destruct E as [E _]. apply Nat.ltb_lt in E.
           refine (inv_begin_base (MLimit lim) i t (todo t) 0 0 s
                     (mkcs (thr s) (inflight s) (ents s) (src s) (snk s) (S (cur s)) (semq s) (tok s) (qcache s) (clk s) (maxkey s) (maxall s))
                     I Ht _ eq_refl eq_refl _ _); [rewrite Hp; discriminate|discriminate|].
           cbn [bound_ok note_max maxall]. apply Nat.max_lub; [apply (i_b _ _ I)|].
           pose proof (count_all_enter (MLimit lim) s
                         (mkcs (thr s) (inflight s) (ents s) (src s) (snk s) (S (cur s)) (semq s) (tok s) (qcache s) (clk s) (maxkey s) (maxall s))
                         i t (todo t) I Ht ltac:(unfold in_copy; rewrite Hp; reflexivity) eq_refl) as C.
           pose proof (p_cnt _ _ (proj1 X)) as XA.
           pose proof (copies_le_holders (thr s)). lia.
        -- eapply inv_enqueue with (i := i) (t := t) (x := mkthr WaitSem (todo t) (cancelled t) (bset t)); [exact I|exact Ht|rewrite Hp; discriminate|reflexivity|reflexivity|reflexivity|apply (i_b _ _ I)|].
           nocopy Hw Hp.
      * destruct (ec_remove_existing dur (clk s) (todo t) (qcache s)) as [mm c1].
        injection H as <-. updi I i t Ht Hp. nocopy Hw Hp.
    + (* Wait, cancelled *)
      destruct (cancelled t); [|discriminate]. injection H as <-. updi I i t Ht Hp. nocopy Hw Hp.
    + (* Wait, woken *)
      destruct (nth_error (ents s) e) as [[[] []]|]; try discriminate; injection H as <-.
      * updi I i t Ht Hp. apply wfb_next_after_key.
      * updi I i t Ht Hp. nocopy Hw Hp.
    + (* Unreg *)
      injection H as <-. updi I i t Ht Hp. nocopy Hw Hp.
    + (* Close *)
      destruct (c =? 0)%Z; injection H as <-.
      * updi I i t Ht Hp. apply wfb_next_after_key.
      * updi I i t Ht Hp. nocopy Hw Hp.
    + (* WaitSem, cancelled *)
      destruct (cancelled t); [|discriminate]. destruct m as [|lim|size dur]; try discriminate.
      injection H as <-.
      apply (inv_notify (MLimit lim) lim (S (length (semq s))) (mkcs (thr (set_pc i t (Done 1) s)) (inflight s) (ents s) (src s) (snk s) (cur s)
                (remove_nat i (semq s)) (tok s) (qcache s) (clk s) (maxkey s) (maxall s))).
      destruct I as [W N Q B]. constructor; cbn [thr semq set_pc set_thr].
      * apply Forall_upd; [exact W|]. nocopy Hw Hp.
      * apply remove_nat_nodup, N.
      * intros j tj Hj Hn. apply remove_nat_in in Hj. destruct Hj as [Hne Hj].
        apply nth_error_upd_inv in Hn. destruct Hn as [[-> _]|[_ Hn]]; [contradiction|]. eapply Q; eassumption.
      * exact B.
    + (* Granted *)
      destruct m as [|lim|size dur]; try discriminate.
      destruct (cancelled t); injection H as <-.
      * apply inv_sem_release. updi I i t Ht Hp. nocopy Hw Hp.
      * refine (inv_begin_base (MLimit lim) i t (todo t) 0 0 s s I Ht _ eq_refl eq_refl _ _);
          [rewrite Hp; discriminate|discriminate|].
        cbn [bound_ok note_max maxall]. apply Nat.max_lub; [apply (i_b _ _ I)|].
        pose proof (count_all_enter (MLimit lim) s s i t (todo t) I Ht ltac:(unfold in_copy; rewrite Hp; reflexivity) eq_refl) as C.
        pose proof (copies_lt_holders (thr s) i t Ht Hp) as L.
        pose proof (p_cnt _ _ (proj1 X)). pose proof (p_le _ _ (proj1 X)). lia.
    + (* WaitTok, cancelled *)
      destruct (cancelled t); [|discriminate]. injection H as <-. updi I i t Ht Hp. nocopy Hw Hp.
    + (* WaitTok takes the token *)
      destruct m as [|lim|size dur]; try discriminate.
      destruct (tok s) eqn:Tk; [|discriminate].
      destruct (ec_remove_existing dur (clk s) (todo t) (qcache s)) as [mm c1].
      injection H as <-.
      refine (inv_begin_base (MQueued size dur) i t mm 0 0 s
                (mkcs (thr s) (inflight s) (ents s) (src s) (snk s) (cur s) (semq s) false c1 (clk s) (maxkey s) (maxall s))
                I Ht _ eq_refl eq_refl _ _); [rewrite Hp; discriminate|discriminate|].
      cbn [bound_ok note_max maxall]. apply Nat.max_lub; [apply (i_b _ _ I)|].
      pose proof (count_all_enter (MQueued size dur) s
                    (mkcs (thr s) (inflight s) (ents s) (src s) (snk s) (cur s) (semq s) false c1 (clk s) (maxkey s) (maxall s))
                    i t mm I Ht ltac:(unfold in_copy; rewrite Hp; reflexivity) eq_refl) as C.
      cbn [aux] in X. unfold qinv in X. rewrite Tk in X. cbn [b2n] in X.
      lia.
Qed.

Lemma inv_init m sets source sink : Inv m (init_state sets source sink).
Proof.
  constructor; cbn [init_state thr semq].
  - apply Forall_forall. intros t Ht. apply in_map_iff in Ht. destruct Ht as (x & <- & _). intros ds Hb. discriminate.
  - constructor.
  - intros j tj [].
  - destruct m; cbn; lia.
Qed.

Lemma aux_init m sets source sink : aux m (init_state sets source sink).
Proof.
  destruct m as [|lim|size dur]; cbn [aux].
  - apply dinv_init.
  - apply linv_init.
  - unfold qinv. cbn [init_state thr tok]. rewrite count_init; [cbn; lia|reflexivity].
Qed.

Lemma aux_step m s e s' : aux m s -> step m s e = Some s' -> aux m s'.
Proof.
  destruct m as [|lim|size dur]; cbn [aux]; intros A H.
  - eapply dedup_step_inv; eassumption.
  - eapply limit_step_inv; eassumption.
  - eapply queued_step_inv; eassumption.
Qed.

Theorem maxima_bounded m sets source sink tr s :
  run m (init_state sets source sink) tr = Some s -> bound_ok m s.
Proof.
  intros H.
  assert (J : Inv m s /\ aux m s).
  { eapply (run_inv m (fun s => Inv m s /\ aux m s)); [|split; [apply inv_init|apply aux_init]|exact H].
    intros s0 e s1 [I A] St. split; [eapply step_inv; eassumption|eapply aux_step; eassumption]. }
  apply (i_b _ _ (proj1 J)).
Qed.
