(** C11 — proofs about FindMissing of the mirrored model: the sorted merge,
    the replication loop, the existence-check theorems. *)
From BBS Require Import Common.Sx Common.ListX Compose.Mirrored Compose.MirroredProofs.
From Coq Require Import Arith.
Local Open Scope nat_scope.

(** * Sorted lists *)
Lemma ss_cons_iff x l : strictly_sorted (x :: l) <-> (Forall (lt x) l /\ strictly_sorted l).
Proof.
  revert x. induction l as [|y l IH]; intros x.
  - split; [intros _; split; constructor|intros _; constructor].
  - split.
    + intros H. inversion H; subst. split; [|assumption].
      constructor; [assumption|].
      apply IH in H4. destruct H4 as [F _].
      eapply Forall_impl; [|exact F]. cbn. intros; lia.
    + intros [F S]. inversion F; subst. constructor; assumption.
Qed.

Lemma ss_filter f l : strictly_sorted l -> strictly_sorted (filter f l).
Proof.
  induction l as [|x l IH]; cbn; [auto|].
  intros H. apply ss_cons_iff in H. destruct H as [F S].
  destruct (f x); [|auto].
  apply ss_cons_iff. split; [|auto].
  apply Forall_forall. intros y Hy. apply filter_In in Hy.
  rewrite Forall_forall in F. apply F. tauto.
Qed.

Definition mem (d : nat) (l : list nat) : bool := existsb (Nat.eqb d) l.
Lemma mem_In d l : mem d l = true <-> In d l.
Proof.
  unfold mem. rewrite existsb_exists. split.
  - intros (y & Hy & E). apply Nat.eqb_eq in E. subst. assumption.
  - intros H. exists d. split; [assumption|apply Nat.eqb_refl].
Qed.
Lemma mem_false d l : mem d l = false <-> ~ In d l.
Proof. rewrite <- mem_In. destruct (mem d l); split; intros; congruence. Qed.

Lemma mem_head x l : mem x (x :: l) = true.
Proof. cbn. rewrite Nat.eqb_refl. reflexivity. Qed.

Lemma ss_le_not_in x y l : strictly_sorted (y :: l) -> x <= y -> ~ In x l.
Proof.
  intros S L Hin. apply ss_cons_iff in S. destruct S as [F _].
  rewrite Forall_forall in F. apply F in Hin. lia.
Qed.

Lemma filter_cons {T} (f : T -> bool) x l :
  filter f (x :: l) = if f x then x :: filter f l else filter f l.
Proof. reflexivity. Qed.

Lemma filter_not_mem_nil l : filter (fun d => negb (mem d [])) l = l.
Proof. induction l; cbn; [reflexivity|]. f_equal. assumption. Qed.

Lemma filter_mem_nil l : filter (fun d => mem d []) l = [].
Proof. induction l; cbn; [reflexivity|assumption]. Qed.

Lemma filter_mem_skip (g : bool -> bool) y a b : ~ In y a ->
  filter (fun d => g (mem d b)) a = filter (fun d => g (mem d (y :: b))) a.
Proof.
  intros N. apply filter_ext_in. intros d Hd. f_equal. cbn [mem existsb].
  destruct (Nat.eqb_spec d y) as [->|]; [contradiction|reflexivity].
Qed.

Lemma diff_inter_spec : forall a b, strictly_sorted a -> strictly_sorted b ->
  diff_inter a b = (filter (fun d => negb (mem d b)) a,
                    filter (fun d => mem d b) a,
                    filter (fun d => negb (mem d a)) b).
Proof.
  induction a as [|x a IHa].
  - intros b _ _. cbn [diff_inter filter]. rewrite filter_not_mem_nil. reflexivity.
  - induction b as [|y b IHb]; intros Sa Sb.
    + cbn [diff_inter filter]. rewrite filter_not_mem_nil, filter_mem_nil. reflexivity.
    + assert (Sa' : strictly_sorted a) by (apply ss_cons_iff in Sa; apply Sa).
      assert (Sb' : strictly_sorted b) by (apply ss_cons_iff in Sb; apply Sb).
      change (diff_inter (x :: a) (y :: b)) with
        (if Nat.ltb x y then let '(oa, bo, ob) := diff_inter a (y :: b) in (x :: oa, bo, ob)
         else if Nat.eqb x y then let '(oa, bo, ob) := diff_inter a b in (oa, x :: bo, ob)
         else let '(oa, bo, ob) := diff_inter (x :: a) b in (oa, bo, y :: ob)).
      destruct (Nat.ltb_spec x y) as [Lt|Ge]; [|destruct (Nat.eqb_spec x y) as [<-|Ne]].
      * (* x < y: x is in a only *)
        assert (Nx : ~ In x (y :: b)).
        { intros [E|Hin]; [lia|]. revert Hin. apply (ss_le_not_in x y b Sb). lia. }
        rewrite (IHa (y :: b) Sa' Sb), !(filter_cons _ x a), (proj2 (mem_false _ _) Nx). cbn [negb].
        f_equal. apply (filter_mem_skip negb _ _ _ Nx).
      * (* x = y: in both *)
        pose proof (ss_le_not_in x x a Sa (le_n x)) as Na.
        pose proof (ss_le_not_in x x b Sb (le_n x)) as Nb.
        rewrite (IHa b Sa' Sb'), !(filter_cons _ x a), (filter_cons _ x b), !mem_head. cbn [negb].
        f_equal; [f_equal|]; [apply (filter_mem_skip negb)|f_equal; apply (filter_mem_skip (fun v => v))
                              |apply (filter_mem_skip negb)]; assumption.
      * (* y < x: y is in b only *)
        assert (Ny : ~ In y (x :: a)).
        { intros [E|Hin]; [lia|]. revert Hin. apply (ss_le_not_in y x a Sa). lia. }
        rewrite (IHb Sa Sb'), (filter_cons _ y b), (proj2 (mem_false _ _) Ny). cbn [negb].
        f_equal. f_equal; [apply (filter_mem_skip negb _ _ _ Ny)|apply (filter_mem_skip (fun v => v) _ _ _ Ny)].
Qed.

Lemma mem_filter (g : nat -> bool) ds d : In d ds -> mem d (filter g ds) = g d.
Proof.
  intros Hd. destruct (g d) eqn:G; [apply mem_In, filter_In; auto|].
  apply mem_false. intros Hin. apply filter_In in Hin. destruct Hin; congruence.
Qed.

Lemma in_only (f g : nat -> bool) ds d :
  In d (filter (fun d => negb (mem d (filter g ds))) (filter f ds))
  <-> (In d ds /\ f d = true /\ g d = false).
Proof.
  rewrite !filter_In. split.
  - intros [[Hd Hf] Hm]. rewrite (mem_filter g ds d Hd) in Hm. destruct (g d); [discriminate|auto].
  - intros (Hd & Hf & Hg). rewrite (mem_filter g ds d Hd), Hg. auto.
Qed.

Lemma both_eq (f g : nat -> bool) ds :
  filter (fun d => mem d (filter g ds)) (filter f ds) = filter (fun d => f d && g d) ds.
Proof.
  rewrite (filter_ext_in (fun d => mem d (filter g ds)) g).
  - induction ds as [|x l IH]; cbn; [reflexivity|]. destruct (f x); cbn; rewrite IH; reflexivity.
  - intros d Hd. apply filter_In in Hd. apply mem_filter, Hd.
Qed.

(** * The replication loop *)

Definition copied (o : oracle) (src : rid) (st st' : mstate) (P : nat -> Prop)
  (e : option (Z * rid)) (cs : list call) : Prop :=
  (forall d, lookup (sto st' (other src)) d = lookup (sto st (other src)) d
        \/ (P d /\ lookup (sto st src) d <> None
            /\ lookup (sto st' (other src)) d = lookup (sto st src) d))
  /\ (e = None ->
        (forall d, P d -> lookup (sto st src) d <> None
                          /\ lookup (sto st' (other src)) d = lookup (sto st src) d)
        /\ (forall c, In c cs -> ocall o c = 0%Z))
  /\ ((forall d, P d -> o src KGet d = 0%Z /\ o (other src) KPut d = 0%Z
                        /\ lookup (sto st src) d <> None) -> e = None).

Lemma copied_iff o src st st' (P Q : nat -> Prop) e cs :
  (forall d, P d <-> Q d) -> copied o src st st' P e cs -> copied o src st st' Q e cs.
Proof.
  intros PQ (F & S & N). split; [|split].
  - intros d. destruct (F d) as [E|(I & H)]; [left; exact E|right]. apply PQ in I. auto.
  - intros E. destruct (S E) as [Sa Sc]. split; [|exact Sc]. intros d I. apply Sa, PQ, I.
  - intros H. apply N. intros d I. apply H, PQ, I.
Qed.

Lemma repl_multi_copied o src : forall l st st' e cs,
  repl_multi o src (other src) st l = (st', e, cs) ->
  sto st' src = sto st src /\ rnd st' = rnd st /\ copied o src st st' (fun d => In d l) e cs.
Proof.
  induction l as [|d t IH]; intros st st' e cs; cbn [repl_multi].
  - intros [= <- <- <-]. split; [reflexivity|]. split; [reflexivity|]. split; [auto|].
    split; [intros _; split; intros ? []|auto].
  - destruct (rget o src (sto st src) d) as [x|c og] eqn:G.
    + destruct (rput o (other src) (sto st (other src)) d (BData x)) as [s' [pe|]] eqn:P.
      * intros [= <- <- <-]. repeat split; auto; try discriminate.
        intros Hl. destruct (Hl d (or_introl eq_refl)) as (_ & Op & _). apply rput_fail in P. rewrite Op in P.
        destruct P as [_ [(Po & Pn & _)|(_ & Pb)]]; [congruence|discriminate].
      * apply rput_ok in P. destruct P as (Po & x1 & [= <-] & ->).
        apply rget_data in G. destruct G as [Go L].
        destruct (repl_multi o src (other src) _ t) as [[st1 e1] cs1] eqn:R.
        intros [= <- <- <-].
        apply IH in R. destruct R as (R1 & R2 & R3 & R4 & R5).
        assert (Hs : sto (set_sto st (other src) (upd (sto st (other src)) d x)) src = sto st src).
        { destruct src; reflexivity. }
        rewrite Hs in *. rewrite rnd_set_sto in R2. rewrite sto_set_same in R3.
        split; [exact R1|]. split; [exact R2|]. split; [|split].
        -- intros d0. destruct (R3 d0) as [Eq|(I & N & Eq)].
           ++ rewrite Eq. destruct (Nat.eq_dec d d0) as [<-|Nd].
              ** right. rewrite lookup_upd_eq, L. repeat split; [left; reflexivity|discriminate].
              ** left. apply lookup_upd_neq. exact Nd.
           ++ right. repeat split; auto. right. exact I.
        -- intros ->. destruct (R4 eq_refl) as [R6 R7]. split.
           ++ intros d0 [<-|I]; [|apply R6; exact I].
              rewrite L. split; [discriminate|].
              destruct (R3 d) as [Eq|(_ & _ & Eq)]; rewrite Eq; [apply lookup_upd_eq|exact L].
           ++ intros c0 [<-|[<-|I]]; cbn; auto.
        -- intros Hl. apply R5. intros d0 I. apply Hl. right. exact I.
    + destruct (rput o (other src) (sto st (other src)) d (BErr c og)) as [s' [pe|]] eqn:P.
      * intros [= <- <- <-]. repeat split; auto; try discriminate.
        intros Hl. destruct (Hl d (or_introl eq_refl)) as (Og & _ & N).
        destruct (rget_err_unfaulted _ _ _ _ _ _ Og G) as [_ L]. contradiction.
      * apply rput_ok in P. destruct P as (_ & x1 & E & _). discriminate.
Qed.

Lemma rfm_cases o r s ds :
  (rfm o r s ds = inr (filter (absent s) ds) /\ o r KFM 0 = 0%Z)
  \/ (exists c, rfm o r s ds = inl (c, r) /\ o r KFM 0 = c /\ c <> 0%Z).
Proof.
  unfold rfm. destruct (Z.eqb_spec (o r KFM 0) 0); [left; auto|right; eauto].
Qed.

Lemma absent_true s d : absent s d = true <-> lookup s d = None.
Proof. unfold absent. destruct (lookup s d); split; congruence. Qed.
Lemma absent_false s d : absent s d = false <-> lookup s d <> None.
Proof. unfold absent. destruct (lookup s d); split; congruence. Qed.

(** The shape of a FindMissing run: both existence checks succeeded (left),
    or one of them failed and the state is unchanged (right). *)
Lemma m_fm_unfold o st ds0 st' r :
  m_fm o st ds0 = (st', r) ->
  let ds := dedup_sort ds0 in
  let mfA := filter (fun d => negb (mem d (filter (absent (sB st)) ds))) (filter (absent (sA st)) ds) in
  let mfB := filter (fun d => negb (mem d (filter (absent (sA st)) ds))) (filter (absent (sB st)) ds) in
  (exists st1 e1 c1 e2 c2,
      o RA KFM 0 = 0%Z /\ o RB KFM 0 = 0%Z
      /\ repl_multi o RA RB st mfB = (st1, e1, c1)
      /\ repl_multi o RB RA st1 mfA = (st', e2, c2)
      /\ errs r = opt_list (option_map (sync_wrap RA) e1) ++ opt_list (option_map (sync_wrap RB) e2)
      /\ okv r = (if is_nil (errs r) then filter (fun d => absent (sA st) d && absent (sB st) d) ds else [])
      /\ calls r = [(RA, KFM, 0); (RB, KFM, 0)] ++ c1 ++ c2)
  \/ (st' = st /\ errs r <> [] /\ okv r = [] /\ calls r = [(RA, KFM, 0); (RB, KFM, 0)]
      /\ forall e, In e (errs r) ->
           exists y, etag_of e = TBackend y /\ ecode e = o y KFM 0 /\ ecode e <> 0%Z).
Proof.
  intros H ds mfA mfB. unfold m_fm in H. fold ds in H.
  destruct (rfm_cases o RA (sA st) ds) as [[EA OA]|(ca & EA & OA & NA)];
  destruct (rfm_cases o RB (sB st) ds) as [[EB OB]|(cb & EB & OB & NB)];
  rewrite EA, EB in H; [left|right; inversion H; subst; cbn; repeat split; auto; try discriminate..].
  - assert (SD : strictly_sorted ds) by apply dedup_sort_sorted.
    rewrite (diff_inter_spec _ _ (ss_filter _ _ SD) (ss_filter _ _ SD)) in H.
    fold mfA mfB in H.
    destruct (repl_multi o RA RB st mfB) as [[st1 e1] c1] eqn:R1.
    destruct (repl_multi o RB RA st1 mfA) as [[st2 e2] c2] eqn:R2.
    inversion H; subst; clear H. cbn [errs okv calls].
    exists st1, e1, c1, e2, c2. rewrite both_eq. repeat split; auto.
  - intros e [<-|[]]. exists RB. cbn. auto.
  - intros e [<-|[]]. exists RA. cbn. auto.
  - intros e [<-|[<-|[]]]; [exists RA|exists RB]; cbn; auto.
Qed.

Lemma in_miss sa sb ds0 d :
  In d (filter (fun d => negb (mem d (filter (absent sb) (dedup_sort ds0))))
               (filter (absent sa) (dedup_sort ds0)))
  <-> In d ds0 /\ lookup sa d = None /\ lookup sb d <> None.
Proof. rewrite in_only, dedup_sort_in, absent_true, absent_false. reflexivity. Qed.

Lemma fm_copied o st ds0 st1 e1 c1 st' e2 c2 :
  let ds := dedup_sort ds0 in
  repl_multi o RA RB st
    (filter (fun d => negb (mem d (filter (absent (sA st)) ds))) (filter (absent (sB st)) ds))
    = (st1, e1, c1) ->
  repl_multi o RB RA st1
    (filter (fun d => negb (mem d (filter (absent (sB st)) ds))) (filter (absent (sA st)) ds))
    = (st', e2, c2) ->
  rnd st' = rnd st
  /\ copied o RA st st' (fun d => In d ds0 /\ lookup (sB st) d = None /\ lookup (sA st) d <> None) e1 c1
  /\ copied o RB st st' (fun d => In d ds0 /\ lookup (sA st) d = None /\ lookup (sB st) d <> None) e2 c2.
Proof.
  intros ds R1 R2. apply (repl_multi_copied o RA) in R1. apply (repl_multi_copied o RB) in R2.
  destruct R1 as (A1 & N1 & C1). destruct R2 as (A2 & N2 & C2).
  apply (copied_iff _ _ _ _ _ _ _ _ (in_miss _ _ ds0)) in C1, C2.
  unfold copied in *. cbn [other sto] in *. rewrite A1 in C2. rewrite A2.
  split; [congruence|]. split; [exact C1|].
  destruct C1 as (F1 & _). destruct C2 as (F2 & S2 & Q2).
  (* the second loop starts from [st1], but reads from B only objects A lacks,
     and those the first loop has not written to B *)
  assert (K : forall d, lookup (sA st) d = None -> lookup (sB st1) d = lookup (sB st) d).
  { intros d L. destruct (F1 d) as [E|((_ & _ & N) & _)]; [exact E|contradiction]. }
  split; [|split].
  - intros d. destruct (F2 d) as [E|(I & N & E)]; [left; exact E|right]. rewrite (K d) in * by apply I. auto.
  - intros E. destruct (S2 E) as [S2a S2c]. split; [|exact S2c].
    intros d I. rewrite <- (K d) by apply I. apply S2a. exact I.
  - intros Hl. apply Q2. intros d I. rewrite (K d) by apply I. apply Hl. exact I.
Qed.

(** Whatever the outcome (also when a replication fails half-way): nothing is
    lost or altered; an object appears in a replica only if it was requested,
    the replica lacked it, and it is the other replica's copy. *)
Theorem fm_frame_proof : forall o st ds0 st' r,
  m_fm o st ds0 = (st', r) ->
  rnd st' = rnd st /\
  forall y d, lookup (sto st' y) d = lookup (sto st y) d
    \/ (In d ds0 /\ lookup (sto st y) d = None /\ lookup (sto st (other y)) d <> None
        /\ lookup (sto st' y) d = lookup (sto st (other y)) d).
Proof.
  intros o st ds0 st' r H. destruct (m_fm_unfold _ _ _ _ _ H)
    as [(st1 & e1 & c1 & e2 & c2 & _ & _ & R1 & R2 & _)|(-> & _)]; [|auto].
  destruct (fm_copied _ _ _ _ _ _ _ _ _ R1 R2) as (Rn & [FB _] & [FA _]).
  split; [exact Rn|]. intros y d.
  destruct y; [destruct (FA d) as [E|E]|destruct (FB d) as [E|E]]; cbn [sto other] in *; tauto.
Qed.

(** On success the answer is exactly the requested objects both replicas
    lack, and every requested object a replica lacked is now its copy of what
    the other replica held (so objects held by exactly one were copied). *)
Theorem fm_ok_proof : forall o st ds0 st' r,
  m_fm o st ds0 = (st', r) -> errs r = [] ->
  okv r = filter (fun d => absent (sA st) d && absent (sB st) d) (dedup_sort ds0)
  /\ (forall y d, In d ds0 -> lookup (sto st y) d = None ->
                  lookup (sto st' y) d = lookup (sto st (other y)) d)
  /\ (forall c, In c (calls r) -> ocall o c = 0%Z).
Proof.
  intros o st ds0 st' r H E.
  destruct (fm_frame_proof _ _ _ _ _ H) as [_ Fr].
  destruct (m_fm_unfold _ _ _ _ _ H)
    as [(st1 & e1 & c1 & e2 & c2 & OA & OB & R1 & R2 & He & Hv & Hc)|(_ & Ne & _)]; [|contradiction].
  rewrite E in Hv. split; [exact Hv|].
  rewrite E in He. destruct e1; [discriminate He|]. destruct e2; [discriminate He|].
  destruct (fm_copied _ _ _ _ _ _ _ _ _ R1 R2) as (_ & (_ & SB & _) & (_ & SA & _)).
  destruct (SA eq_refl) as [SAa SAc]. destruct (SB eq_refl) as [SBa SBc]. split.
  - intros y d I L. destruct (lookup (sto st (other y)) d) as [x|] eqn:Lo.
    + (* the other replica holds it: it was replicated *)
      rewrite <- Lo. destruct y; [apply SAa|apply SBa]; cbn [sto other] in *;
        (split; [exact I|]; split; [exact L|congruence]).
    + destruct (Fr y d) as [Eq|(_ & _ & C & _)]; [congruence|contradiction].
  - intros c Hin. rewrite Hc in Hin. cbn [app] in Hin.
    destruct Hin as [<-|[<-|Hin]]; [exact OA|exact OB|].
    apply in_app_or in Hin. destruct Hin; auto.
Qed.

Theorem fm_missing_iff_both_missing_proof : forall o st ds0 st' r,
  m_fm o st ds0 = (st', r) -> errs r = [] ->
  forall d, In d (okv r) <-> (In d ds0 /\ lookup (sA st) d = None /\ lookup (sB st) d = None).
Proof.
  intros o st ds0 st' r H E d.
  destruct (fm_ok_proof _ _ _ _ _ H E) as (-> & _).
  rewrite filter_In, dedup_sort_in, Bool.andb_true_iff, !absent_true. tauto.
Qed.

Lemma fm_ok_value o st ds0 st' r y d :
  m_fm o st ds0 = (st', r) -> errs r = [] -> In d ds0 ->
  lookup (sto st' y) d =
    match lookup (sto st y) d with Some v => Some v | None => lookup (sto st (other y)) d end.
Proof.
  intros H E I. destruct (fm_ok_proof _ _ _ _ _ H E) as (_ & Rep & _).
  destruct (lookup (sto st y) d) eqn:L; [|exact (Rep y d I L)].
  destruct (fm_frame_proof _ _ _ _ _ H) as [_ Fr]. destruct (Fr y d) as [Eq|(_ & C & _)]; congruence.
Qed.

Theorem fm_ok_repairs_symmetric_difference_proof : forall o st ds0 st' r,
  m_fm o st ds0 = (st', r) -> errs r = [] ->
  forall d, In d ds0 ->
    (forall x, lookup (sA st) d = Some x -> lookup (sB st) d = None ->
               lookup (sB st') d = Some x /\ lookup (sA st') d = Some x)
    /\ (forall x, lookup (sB st) d = Some x -> lookup (sA st) d = None ->
               lookup (sA st') d = Some x /\ lookup (sB st') d = Some x)
    /\ (lookup (sA st') d = None <-> lookup (sB st') d = None).
Proof.
  intros o st ds0 st' r H E d I.
  pose proof (fm_ok_value _ _ _ _ _ RA d H E I) as VA.
  pose proof (fm_ok_value _ _ _ _ _ RB d H E I) as VB. cbn [sto other] in VA, VB. rewrite VA, VB.
  destruct (lookup (sA st) d), (lookup (sB st) d); intuition congruence.
Qed.

(** Absent faults the existence check succeeds; only the calls it can make
    need to be unfaulted. *)
Lemma fm_unfaulted_ok o st ds0 st' r :
  o RA KFM 0 = 0%Z -> o RB KFM 0 = 0%Z ->
  (forall d x, In d ds0 -> o x KGet d = 0%Z /\ o x KPut d = 0%Z) ->
  m_fm o st ds0 = (st', r) -> errs r = [].
Proof.
  intros OA OB L H.
  destruct (m_fm_unfold _ _ _ _ _ H)
    as [(st1 & e1 & c1 & e2 & c2 & _ & _ & R1 & R2 & He & _)|(_ & _ & _ & _ & Hall)].
  - destruct (fm_copied _ _ _ _ _ _ _ _ _ R1 R2) as (_ & (_ & _ & QB) & (_ & _ & QA)).
    rewrite He, QA, QB; [reflexivity| |]; intros d (I & _ & N);
      (split; [apply (L d _ I)|split; [apply (L d _ I)|exact N]]).
  - destruct (errs r) as [|e l]; [reflexivity|].
    destruct (Hall e (or_introl eq_refl)) as (y & _ & Ec & Ne). destruct y; congruence.
Qed.

Theorem fm_no_faults_ok_proof : forall o st ds0 st' r,
  no_faults o -> m_fm o st ds0 = (st', r) -> errs r = [].
Proof.
  intros o st ds0 st' r NFo. apply fm_unfaulted_ok; try apply NFo. intros d x _. split; apply NFo.
Qed.
