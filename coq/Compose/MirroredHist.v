(** C11 — errors are not masked (every operation, every oracle), and the
    lifting to histories. *)
From BBS Require Import Common.Sx Compose.Mirrored Compose.MirroredProofs Compose.MirroredFM.
From Coq Require Import Arith.
Local Open Scope nat_scope.

Definition benign (o : oracle) (c : call) : Prop :=
  ocall o c = 0%Z \/ (snd (fst c) = KGet /\ ocall o c = NF).

Definition both_answer_nf (o : oracle) (st : mstate) (d : nat) : Prop :=
  rget o RA (sA st) d = BErr NF RA /\ rget o RB (sB st) d = BErr NF RB.

Lemma sel_wrap_code name e : ecode (sel_wrap name e) = fst e.
Proof. unfold sel_wrap. destruct (Z.eqb_spec (fst e) NF) as [->|]; reflexivity. Qed.
Lemma sel_wrap_tag name e : fst e <> NF -> etag_of (sel_wrap name e) = TBackend name.
Proof. unfold sel_wrap. destruct (Z.eqb_spec (fst e) NF); [contradiction|reflexivity]. Qed.
Lemma sync_wrap_code src e : ecode (sync_wrap src e) <> NF.
Proof. unfold sync_wrap. destruct (Z.eqb_spec (fst e) NF); cbn; [discriminate|assumption]. Qed.
Lemma sync_wrap_tag src e : etag_of (sync_wrap src e) <> TNone.
Proof. unfold sync_wrap. destruct (fst e =? NF)%Z; discriminate. Qed.

Lemma rget_nf_benign o r s d : rget o r s d = BErr NF r -> benign o (r, KGet, d).
Proof.
  intros G. destruct (rget_cases o r s d) as [(x & E & _)|[(_ & [[E _]|E])|(c & E & _ & _ & Nc)]].
  - congruence.
  - left. exact E.
  - right. split; [reflexivity|exact E].
  - rewrite G in E. congruence.
Qed.

Lemma both_answer_nf_each o st d y : both_answer_nf o st d -> rget o y (sto st y) d = BErr NF y.
Proof. intros [A B]. destruct y; assumption. Qed.

Lemma backend_err_loud o k d e : k <> KGet ->
  (exists y, etag_of e = TBackend y /\ ecode e = o y k d /\ ecode e <> 0%Z) ->
  (wf_oracle o -> ecode e <> NF) /\ etag_of e <> TNone.
Proof. intros K (y & -> & -> & _). split; [intros W; apply W; exact K|discriminate]. Qed.

Lemma sync_err_loud src e0 e :
  In e (opt_list (option_map (sync_wrap src) e0)) -> ecode e <> NF /\ etag_of e <> TNone.
Proof.
  destruct e0; [intros [<-|[]]|intros []]. split; [apply sync_wrap_code|apply sync_wrap_tag].
Qed.

Lemma loud_not_masked o st p r :
  (errs r = [] -> forall c, In c (calls r) -> ocall o c = 0%Z) ->
  (forall e, In e (errs r) -> (wf_oracle o -> ecode e <> NF) /\ etag_of e <> TNone) ->
  (errs r = [] -> forall c, In c (calls r) -> benign o c)
  /\ (wf_oracle o -> forall e, In e (errs r) -> ecode e = NF ->
        exists d, p = OGet d /\ both_answer_nf o st d)
  /\ (forall e, In e (errs r) -> ecode e <> NF -> etag_of e <> TNone).
Proof.
  intros A B. split; [intros E c I; left; exact (A E c I)|]. split.
  - intros W e I En. destruct (B e I) as [B1 _]. contradiction (B1 W).
  - intros e I _. apply (B e I).
Qed.

(** Any replica failure other than NOT_FOUND is surfaced as an error naming
    a replica; never as NOT_FOUND, never as a successful answer. *)
Theorem errors_not_masked_proof : forall o st p st' r,
  step o st p = (st', r) ->
  (errs r = [] -> forall c, In c (calls r) -> benign o c)
  /\ (wf_oracle o -> forall e, In e (errs r) -> ecode e = NF ->
        exists d, p = OGet d /\ both_answer_nf o st d)
  /\ (forall e, In e (errs r) -> ecode e <> NF -> etag_of e <> TNone).
Proof.
  intros o st p st' r H.
  destruct p as [d|d x|ds|]; cbn [step] in H.
  - destruct (m_get_outcome _ _ _ _ _ H) as [x G|c G N|c G1 G2|x G1 G2 P|x G1 G2 P]; cbn [errs calls].
    + split; [|split; intros; contradiction].
      intros _ c [<-|[]]. left. apply rget_data in G. apply G.
    + split; [discriminate|]. split; [intros _ e [<-|[]] E; contradiction|intros e [<-|[]]; discriminate].
    + split; [discriminate|]. split; [intros _ e [<-|[]]|intros e [<-|[]]]; rewrite sel_wrap_code; cbn [fst].
      * intros ->. exists d. split; [reflexivity|]. destruct (firstR st); split; assumption.
      * intros En. rewrite sel_wrap_tag by exact En. discriminate.
    + split; [|split; intros; contradiction].
      intros _ c [<-|[<-|[<-|[]]]];
        [exact (rget_nf_benign _ _ _ _ G1)|left; apply rget_data in G2; apply G2|left; exact P].
    + split; [discriminate|]. split; [intros W e [<-|[]]|intros e [<-|[]]]; rewrite sel_wrap_code; cbn [fst].
      * intros En. exfalso. apply (W (firstR st) KPut d); [discriminate|exact En].
      * intros En. rewrite sel_wrap_tag by exact En. discriminate.
  - destruct (m_put_replica _ _ _ _ _ _ H) as (_ & Hc & Y & He). apply loud_not_masked.
    + intros E c I. rewrite Hc in I. destruct I as [<-|[<-|[]]]; [apply (Y RA)|apply (Y RB)]; exact E.
    + intros e I. apply (backend_err_loud o KPut d); [discriminate|exact (He e I)].
  - apply loud_not_masked.
    + intros E. apply (fm_ok_proof _ _ _ _ _ H E).
    + intros e I. destruct (m_fm_unfold _ _ _ _ _ H)
        as [(st1 & e1 & c1 & e2 & c2 & _ & _ & _ & _ & He & _)|(_ & _ & _ & _ & Hall)].
      * rewrite He in I. apply in_app_or in I.
        destruct I as [I|I]; apply sync_err_loud in I; destruct I; auto.
      * apply (backend_err_loud o KFM 0); [discriminate|exact (Hall e I)].
  - unfold m_cap in H. injection H as <- <-. apply loud_not_masked; cbn [errs calls];
      destruct (Z.eqb_spec (o (first_of (S (rnd st))) KCap 0) 0) as [E|N].
    + intros _ c [<-|[]]. exact E.
    + discriminate.
    + intros e [].
    + intros e [<-|[]]. apply (backend_err_loud o KCap 0); [discriminate|].
      exists (first_of (S (rnd st))). auto.
Qed.

(** Corollary in the "a failure surfaces" direction.  The only replica
    outcome that is not surfaced is that of the repair upload issued for an
    object neither replica returned (the upload of an error buffer, whose
    outcome the code discards): the read then still reports NOT_FOUND. *)
Corollary failure_surfaces_proof : forall o st p st' r c,
  step o st p = (st', r) -> wf_oracle o ->
  In c (calls r) -> ocall o c <> 0%Z -> ocall o c <> NF ->
  errs r <> []
  /\ ((forall e, In e (errs r) -> ecode e <> NF /\ etag_of e <> TNone)
      \/ (exists d, p = OGet d /\ both_answer_nf o st d /\ snd (fst c) = KPut)).
Proof.
  intros o st p st' r c H W I C0 CN.
  destruct (errors_not_masked_proof _ _ _ _ _ H) as (A & B & C).
  split; [intros E; destruct (A E c I) as [Z|[_ Z]]; contradiction|].
  destruct (Exists_dec (fun e => ecode e = NF) (errs r) (fun e => Z.eq_dec (ecode e) NF)) as [X|X].
  - right. apply Exists_exists in X. destruct X as (e & Ie & En).
    destruct (B W e Ie En) as (d & -> & Hb). exists d. split; [reflexivity|]. split; [exact Hb|].
    (* both lookups answered NOT_FOUND, so the failing call is neither of them *)
    pose proof (both_answer_nf_each _ _ _ (firstR st) Hb) as GF.
    pose proof (both_answer_nf_each _ _ _ (other (firstR st)) Hb) as GS.
    destruct (m_get_outcome _ _ _ _ _ H) as [x G|c0 G N|c0 G1 G2|x G1 G2 P|x G1 G2 P]; try congruence.
    destruct I as [<-|[<-|[<-|[]]]]; [| |reflexivity].
    + destruct (rget_nf_benign _ _ _ _ GF) as [Z|[_ Z]]; contradiction.
    + destruct (rget_nf_benign _ _ _ _ GS) as [Z|[_ Z]]; contradiction.
  - left. intros e Ie.
    assert (En : ecode e <> NF) by (intros En; apply X, Exists_exists; eauto).
    split; [exact En|exact (C e Ie En)].
Qed.

(** * One step: what can happen to the contents of a replica *)
Lemma step_frame o st p st' r : step o st p = (st', r) -> forall y d,
  lookup (sto st' y) d = lookup (sto st y) d
  \/ (lookup (sto st (other y)) d <> None /\ lookup (sto st' y) d = lookup (sto st (other y)) d)
  \/ (exists x, p = OPut d x /\ lookup (sto st' y) d = Some x).
Proof.
  destruct p as [d0|d0 x|ds|]; cbn [step]; intros H y d.
  - destruct (get_frame _ _ _ _ _ H) as (Ho & Hf).
    destruct (first_or_other (firstR st) y) as [->| ->].
    + destruct (Hf d) as [Eq|(-> & _ & _ & N & Eq)]; [left; exact Eq|right; left; auto].
    + left. rewrite Ho. reflexivity.
  - destruct (put_frame _ _ _ _ _ _ H) as (_ & Hf).
    destruct (Hf y d) as [Eq|(-> & Eq & _)]; [left; exact Eq|right; right; eauto].
  - destruct (fm_frame_proof _ _ _ _ _ H) as (_ & Hf).
    destruct (Hf y d) as [Eq|(_ & _ & N & Eq)]; [left; exact Eq|right; left; auto].
  - unfold m_cap in H. inversion H; subst. left. apply (f_equal (fun s => lookup s d)). apply sto_set_rnd.
Qed.

Lemma step_presence o st p st' r y d :
  step o st p = (st', r) -> lookup (sto st y) d <> None -> lookup (sto st' y) d <> None.
Proof.
  intros H N. destruct (step_frame _ _ _ _ _ H y d) as [E|[(N2 & E)|(x & _ & E)]]; congruence.
Qed.

Lemma step_provenance o st p st' r y d v :
  step o st p = (st', r) -> lookup (sto st' y) d = Some v ->
  lookup (sA st) d = Some v \/ lookup (sB st) d = Some v \/ p = OPut d v.
Proof.
  intros H L. destruct (step_frame _ _ _ _ _ H y d) as [E|[(N2 & E)|(x & -> & E)]].
  - rewrite E in L. destruct y; cbn in L; auto.
  - rewrite E in L. destruct y; cbn in L; auto.
  - right. right. congruence.
Qed.

Definition synced (st : mstate) (d : nat) : Prop := lookup (sA st) d = None <-> lookup (sB st) d = None.

(** The invariant relating the two replicas: once they agree on the presence
    of [d], every operation keeps them in agreement, except an upload of [d]
    that fails (it may have reached one replica only). *)
Lemma step_synced o st p st' r d :
  step o st p = (st', r) -> synced st d ->
  (forall x, p = OPut d x -> errs r = []) -> synced st' d.
Proof.
  intros H S HP. unfold synced in *.
  assert (PUT : forall x, p = OPut d x -> lookup (sA st') d = None <-> lookup (sB st') d = None).
  { intros x ->. cbn [step] in H.
    destruct (put_ok_both_proof _ _ _ _ _ _ H (HP _ eq_refl)) as [LA LB].
    rewrite LA, LB. split; discriminate. }
  destruct (step_frame _ _ _ _ _ H RA d) as [EA|[(NA & EA)|(x & Ep & _)]]; [| |exact (PUT x Ep)];
  (destruct (step_frame _ _ _ _ _ H RB d) as [EB|[(NB & EB)|(x' & Ep' & _)]]; [| |exact (PUT x' Ep')]);
  cbn [sto other] in *; rewrite EA, EB; tauto.
Qed.

Lemma step_rnd o st p st' r :
  step o st p = (st', r) ->
  if bump_op p then rnd st' = S (rnd st) /\ first_called (calls r) = first_of (S (rnd st))
  else rnd st' = rnd st.
Proof.
  destruct p as [d|d x|ds|]; cbn [step bump_op]; intros H.
  - split; [exact (get_rnd _ _ _ _ _ H)|]. destruct (m_get_outcome _ _ _ _ _ H); reflexivity.
  - exact (proj1 (put_frame _ _ _ _ _ _ H)).
  - exact (proj1 (fm_frame_proof _ _ _ _ _ H)).
  - unfold m_cap in H. inversion H. split; reflexivity.
Qed.

Lemma first_of_alternates n : first_of (S n) = other (first_of n).
Proof.
  unfold first_of. rewrite Nat.odd_succ, <- Nat.negb_odd. destruct (Nat.odd n); reflexivity.
Qed.

Lemma run_cons st o p t : run st ((o, p) :: t) =
  let '(st1, r) := step o st p in let '(st2, rs) := run st1 t in (st2, r :: rs).
Proof. reflexivity. Qed.

Lemma run_app : forall h1 h2 st, run st (h1 ++ h2) =
  let '(s1, r1) := run st h1 in let '(s2, r2) := run s1 h2 in (s2, r1 ++ r2).
Proof.
  induction h1 as [|[o p] t IH]; intros h2 st.
  - cbn. destruct (run st h2); reflexivity.
  - cbn [app]. rewrite !run_cons. destruct (step o st p) as [sa ra]. rewrite IH.
    destruct (run sa t) as [sb rb]. destruct (run sb h2) as [sc rc]. reflexivity.
Qed.

Theorem history_presence_proof : forall h st st' rs y d,
  run st h = (st', rs) -> lookup (sto st y) d <> None -> lookup (sto st' y) d <> None.
Proof.
  induction h as [|[o p] t IH]; intros st st' rs y d H N.
  - inversion H; subst. exact N.
  - rewrite run_cons in H. destruct (step o st p) as [st1 r] eqn:S1.
    destruct (run st1 t) as [st2 rs2] eqn:R. inversion H; subst.
    eapply IH; [exact R|]. eapply step_presence; eassumption.
Qed.

(** No content is ever fabricated: whatever a replica holds at the end was
    held by a replica initially or was uploaded during the history. *)
Theorem history_provenance_proof : forall h st st' rs y d v,
  run st h = (st', rs) -> lookup (sto st' y) d = Some v ->
  lookup (sA st) d = Some v \/ lookup (sB st) d = Some v \/ exists o, In (o, OPut d v) h.
Proof.
  induction h as [|[o p] t IH]; intros st st' rs y d v H L.
  - inversion H; subst. destruct y; cbn in L; auto.
  - rewrite run_cons in H. destruct (step o st p) as [st1 r] eqn:S1.
    destruct (run st1 t) as [st2 rs2] eqn:R. inversion H; subst.
    destruct (IH _ _ _ _ _ _ R L) as [LA|[LB|(o' & I)]].
    + destruct (step_provenance _ _ _ _ _ RA _ _ S1 LA) as [X|[X|X]]; auto.
      right. right. exists o. left. congruence.
    + destruct (step_provenance _ _ _ _ _ RB _ _ S1 LB) as [X|[X|X]]; auto.
      right. right. exists o. left. congruence.
    + right. right. exists o'. right. exact I.
Qed.

(** A successful upload is present in both replicas for the rest of the
    history, whatever fails later. *)
Theorem history_put_persists_proof : forall h1 o d x h2 st st1 rs1 st2 r st3 rs3,
  run st h1 = (st1, rs1) -> step o st1 (OPut d x) = (st2, r) -> errs r = [] ->
  run st2 h2 = (st3, rs3) ->
  run st (h1 ++ (o, OPut d x) :: h2) = (st3, rs1 ++ r :: rs3)
  /\ lookup (sA st3) d <> None /\ lookup (sB st3) d <> None.
Proof.
  intros h1 o d x h2 st st1 rs1 st2 r st3 rs3 R1 S E R2. split.
  - rewrite run_app, R1, run_cons, S, R2. reflexivity.
  - cbn [step] in S. destruct (put_ok_both_proof _ _ _ _ _ _ S E) as [LA LB].
    split; [apply (history_presence_proof h2 st2 st3 rs3 RA d R2)|apply (history_presence_proof h2 st2 st3 rs3 RB d R2)];
      cbn; congruence.
Qed.

(** The invariant lifted: replicas that agree on [d] still agree after any
    history in which no upload of [d] fails. *)
Theorem history_synced_proof : forall h st st' rs d,
  run st h = (st', rs) -> synced st d ->
  (forall i o x r, nth_error h i = Some (o, OPut d x) -> nth_error rs i = Some r -> errs r = []) ->
  synced st' d.
Proof.
  induction h as [|[o p] t IH]; intros st st' rs d H Sy HP.
  - inversion H; subst. exact Sy.
  - rewrite run_cons in H. destruct (step o st p) as [st1 r] eqn:S1.
    destruct (run st1 t) as [st2 rs2] eqn:R. inversion H; subst.
    eapply IH; [exact R| |].
    + eapply step_synced; [exact S1|exact Sy|]. intros x ->. apply (HP 0 o x r); reflexivity.
    + intros i o' x r' N1 N2. apply (HP (S i) o' x r'); assumption.
Qed.

(** The round counter grows by one for every Get/GetCapabilities of the
    history and by nothing else. *)
Theorem history_alternation_proof : forall h st st' rs,
  run st h = (st', rs) ->
  rnd st' = rnd st + length (filter bump_op (map snd h)).
Proof.
  induction h as [|[o p] t IH]; intros st st' rs H.
  - inversion H; subst. cbn. lia.
  - rewrite run_cons in H. destruct (step o st p) as [st1 r] eqn:S1.
    destruct (run st1 t) as [st2 rs2] eqn:R. inversion H; subst.
    rewrite (IH _ _ _ R). pose proof (step_rnd _ _ _ _ _ S1) as Hr. cbn [map snd filter].
    destruct (bump_op p); [destruct Hr as [-> _]; cbn; lia|rewrite Hr; lia].
Qed.
