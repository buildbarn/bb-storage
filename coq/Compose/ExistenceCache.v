(** C17: pkg/eviction/lru_set.go, pkg/digest/existence_cache.go and
    pkg/blobstore/existence_caching_blob_access.go.

    Keys are natural numbers; time is a virtual clock in [N]; the LRU queue is
    a list, oldest first.  A Go panic (Peek/Remove on an empty queue, double
    Insert, Touch of an absent element) is the explicit [lpanic] flag.
    Definitions only. *)
From Coq Require Import List ZArith NArith Bool Arith Lia.
From BBS Require Import Common.ListX.
Import ListNotations.

Definition memn (d : nat) (s : list nat) : bool := existsb (Nat.eqb d) s.
Fixpoint remove_nat (d : nat) (l : list nat) : list nat :=
  match l with [] => [] | h :: t => if Nat.eqb d h then remove_nat d t else h :: remove_nat d t end.

(** * LRU set *)
Record lru := mklru { lq : list nat; lpanic : bool }.
Definition lru_empty : lru := mklru [] false.
Definition lru_insert (v : nat) (s : lru) : lru :=
  if memn v (lq s) then mklru (lq s) true else mklru (lq s ++ [v]) (lpanic s).
Definition lru_touch (v : nat) (s : lru) : lru :=
  if memn v (lq s) then mklru (remove_nat v (lq s) ++ [v]) (lpanic s) else mklru (lq s) true.
Definition lru_peek (s : lru) : option nat := match lq s with [] => None | v :: _ => Some v end.
Definition lru_remove (s : lru) : lru :=
  match lq s with [] => mklru [] true | _ :: r => mklru r (lpanic s) end.

Inductive lop := LInsert (v : nat) | LTouch (v : nat) | LPeek | LRemove.

(** Answers to the Peek operations of a history ([None] = empty queue). *)
Fixpoint lru_run (ops : list lop) (s : lru) : list (option nat) * lru :=
  match ops with
  | [] => ([], s)
  | LInsert v :: r => lru_run r (lru_insert v s)
  | LTouch v :: r => lru_run r (lru_touch v s)
  | LPeek :: r => let (a, s') := lru_run r s in (lru_peek s :: a, s')
  | LRemove :: r => lru_run r (lru_remove s)
  end.

(** * Existence cache *)
Record ec := mkec { times : list (nat * N); elru : lru }.
Definition ec_empty : ec := mkec [] lru_empty.

Fixpoint lookup (k : nat) (m : list (nat * N)) : option N :=
  match m with [] => None | (k', t) :: r => if Nat.eqb k k' then Some t else lookup k r end.
Fixpoint remove_key (k : nat) (m : list (nat * N)) : list (nat * N) :=
  match m with [] => [] | (k', t) :: r => if Nat.eqb k k' then remove_key k r else (k', t) :: remove_key k r end.
Definition set_time (k : nat) (t : N) (m : list (nat * N)) : list (nat * N) := (k, t) :: remove_key k m.

(** [!insertionTime.Before(now - duration)] *)
Definition fresh (dur now t0 : N) : bool := (now <=? t0 + dur)%N.

(** RemoveExisting: returns the digests that are not (freshly) cached; cached
    ones are touched. *)
Fixpoint ec_remove_existing (dur now : N) (ds : list nat) (e : ec) : list nat * ec :=
  match ds with
  | [] => ([], e)
  | d :: r =>
      match lookup d (times e) with
      | Some t0 =>
          if fresh dur now t0
          then ec_remove_existing dur now r (mkec (times e) (lru_touch d (elru e)))
          else let (m, e') := ec_remove_existing dur now r e in (d :: m, e')
      | None => let (m, e') := ec_remove_existing dur now r e in (d :: m, e')
      end
  end.

Definition ec_evict (e : ec) : ec :=
  match lru_peek (elru e) with
  | Some k => mkec (remove_key k (times e)) (lru_remove (elru e))
  | None => mkec (times e) (lru_remove (elru e))   (* panics *)
  end.

Fixpoint ec_add (size : nat) (now : N) (ds : list nat) (e : ec) : ec :=
  match ds with
  | [] => e
  | d :: r =>
      let e1 := if Nat.leb size (length (times e)) then ec_evict e else e in
      let e2 := match lookup d (times e1) with
                | Some t0 => if (t0 <? now)%N then mkec (set_time d now (times e1)) (elru e1) else e1
                | None => mkec (set_time d now (times e1)) (lru_insert d (elru e1))
                end in
      ec_add size now r e2
  end.

(** * History of an existence-caching FindMissing decorator over one backend,
      interleaved with direct cache calls, backend changes and clock advances. *)
Inductive eop :=
| EFm (ds : list nat) (d1 d2 : N) (fault : Z)   (* decorator FindMissing; clock advances before each Now() *)
| ERemoveExisting (ds : list nat) (d1 : N)
| EAdd (ds : list nat) (d1 : N)
| EBackendPut (d : nat)
| EBackendDel (d : nat)
| EGfc (p : nat) (fault : Z).                   (* decorator GetFromComposite of the child of parent p *)

Record est := mkest { cache : ec; now : N; backend : list nat }.

(** What is observed per step: code, answer, the backend call's argument (if
    one was made), clock readings. *)
Record eobs := mkeobs { e_code : Z; e_ans : list nat; e_call : option (list nat); e_clock : list N }.

Definition estep (size : nat) (dur : N) (o : eop) (s : est) : eobs * est :=
  match o with
  | EFm ds d1 d2 fault =>
      let ds := dedup_sort ds in
      let t1 := (now s + d1)%N in
      let (mm, c1) := ec_remove_existing dur t1 ds (cache s) in
      if negb (Z.eqb fault 0) then (mkeobs fault [] (Some mm) [t1], mkest c1 t1 (backend s))
      else
        let missing := filter (fun d => negb (memn d (backend s))) mm in
        let present := filter (fun d => memn d (backend s)) mm in
        let t2 := (t1 + d2)%N in
        (mkeobs 0 missing (Some mm) [t1; t2], mkest (ec_add size t2 present c1) t2 (backend s))
  | ERemoveExisting ds d1 =>
      let ds := dedup_sort ds in
      let t1 := (now s + d1)%N in
      let (mm, c1) := ec_remove_existing dur t1 ds (cache s) in
      (mkeobs 0 mm None [t1], mkest c1 t1 (backend s))
  | EAdd ds d1 =>
      let ds := dedup_sort ds in
      let t1 := (now s + d1)%N in
      (mkeobs 0 [] None [t1], mkest (ec_add size t1 ds (cache s)) t1 (backend s))
  | EBackendPut d => (mkeobs 0 [] None [], mkest (cache s) (now s) (insert_sorted d (backend s)))
  | EBackendDel d => (mkeobs 0 [] None [], mkest (cache s) (now s) (remove_nat d (backend s)))
  | EGfc p fault =>
      (* ExistenceCachingBlobAccess embeds the backend: a composite read is the
         backend's, the cache is neither consulted (no clock reading) nor updated *)
      (mkeobs (if negb (Z.eqb fault 0) then fault else if memn p (backend s) then 0 else 5) [] (Some [p]) [], s)
  end.

Fixpoint erun (size : nat) (dur : N) (ops : list eop) (s : est) : list eobs * est :=
  match ops with
  | [] => ([], s)
  | o :: r => let (ob, s1) := estep size dur o s in
              let (obs, s2) := erun size dur r s1 in (ob :: obs, s2)
  end.
