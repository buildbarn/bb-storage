(** C11 — the mirrored model: facts about stores and replica calls, and the
    theorems about Put and Get.  FindMissing is in Compose/MirroredFM.v,
    histories are in Compose/MirroredHist.v. *)
From BBS Require Import Common.Sx Common.ListX Compose.Mirrored.
From Coq Require Import Arith.

Local Open Scope nat_scope.

Lemma lookup_upd_eq s d x : lookup (upd s d x) d = Some x.
Proof. unfold upd. cbn. rewrite Nat.eqb_refl. reflexivity. Qed.

Lemma lookup_upd_neq s d x d' : d <> d' -> lookup (upd s d x) d' = lookup s d'.
Proof. intros H. unfold upd. cbn. apply Nat.eqb_neq in H. rewrite H. reflexivity. Qed.

Lemma other_other r : other (other r) = r.
Proof. destruct r; reflexivity. Qed.
Lemma other_neq r : other r <> r.
Proof. destruct r; discriminate. Qed.
Lemma first_or_other r y : y = r \/ y = other r.
Proof. destruct r, y; auto. Qed.

Lemma sto_set_same st r s : sto (set_sto st r s) r = s.
Proof. destruct r; reflexivity. Qed.
Lemma sto_set_other st r s : sto (set_sto st r s) (other r) = sto st (other r).
Proof. destruct r; reflexivity. Qed.
Lemma sto_set_rnd st n r : sto (set_rnd st n) r = sto st r.
Proof. destruct r; reflexivity. Qed.
Lemma rnd_set_sto st r s : rnd (set_sto st r s) = rnd st.
Proof. destruct r; reflexivity. Qed.

Lemma rget_cases o r s d :
  (exists x, rget o r s d = BData x /\ o r KGet d = 0%Z /\ lookup s d = Some x)
  \/ (rget o r s d = BErr NF r /\ ((o r KGet d = 0%Z /\ lookup s d = None) \/ o r KGet d = NF))
  \/ (exists c, rget o r s d = BErr c r /\ o r KGet d = c /\ c <> 0%Z /\ c <> NF).
Proof.
  unfold rget. destruct (Z.eqb_spec (o r KGet d) 0) as [E|E].
  - destruct (lookup s d) as [x|] eqn:L.
    + left. exists x. auto.
    + right. left. auto.
  - destruct (Z.eq_dec (o r KGet d) NF) as [E2|E2].
    + right. left. rewrite E2. auto.
    + right. right. exists (o r KGet d). auto.
Qed.

Lemma rget_origin o r s d c og : rget o r s d = BErr c og -> og = r /\ c <> 0%Z.
Proof.
  unfold rget. destruct (Z.eqb_spec (o r KGet d) 0).
  - destruct (lookup s d); [discriminate|]. intros H; inversion H; subst. split; [reflexivity|discriminate].
  - intros H; inversion H; subst. auto.
Qed.

Lemma rget_data o r s d x : rget o r s d = BData x -> o r KGet d = 0%Z /\ lookup s d = Some x.
Proof.
  unfold rget. destruct (Z.eqb_spec (o r KGet d) 0); [|discriminate].
  destruct (lookup s d); [|discriminate]. intros H; inversion H; subst. auto.
Qed.

Lemma rput_ok o r s d b s' : rput o r s d b = (s', None) ->
  o r KPut d = 0%Z /\ exists x, b = BData x /\ s' = upd s d x.
Proof.
  unfold rput. destruct (Z.eqb_spec (o r KPut d) 0); [|discriminate].
  destruct b; [|discriminate]. intros H; inversion H; subst. eauto.
Qed.

Lemma rput_fail o r s d b s' e : rput o r s d b = (s', Some e) ->
  s' = s /\ ((o r KPut d = fst e /\ fst e <> 0%Z /\ snd e = r)
             \/ (o r KPut d = 0%Z /\ b = BErr (fst e) (snd e))).
Proof.
  unfold rput. destruct (Z.eqb_spec (o r KPut d) 0).
  - destruct b; [discriminate|]. intros H; inversion H; subst. cbn. auto.
  - intros H; inversion H; subst. cbn. auto.
Qed.

Lemma put_branch_spec o r d x st st' e :
  put_branch o r d x st = (st', e) ->
  sto st' (other r) = sto st (other r) /\ rnd st' = rnd st
  /\ (forall d', lookup (sto st' r) d' = lookup (sto st r) d'
                 \/ (d' = d /\ lookup (sto st' r) d' = Some x /\ o r KPut d = 0%Z))
  /\ (e = [] -> lookup (sto st' r) d = Some x /\ o r KPut d = 0%Z)
  /\ (forall e', In e' e -> etag_of e' = TBackend r /\ ecode e' = o r KPut d /\ ecode e' <> 0%Z).
Proof.
  unfold put_branch. destruct (rput o r (sto st r) d (BData x)) as [s' [e0|]] eqn:P;
    intros H; inversion H; subst; clear H; rewrite sto_set_other, rnd_set_sto, sto_set_same.
  - apply rput_fail in P. destruct P as [-> P].
    split; [reflexivity|]. split; [reflexivity|]. split; [auto|]. split; [discriminate|].
    intros e' [<-|[]]. cbn. destruct P as [(P1 & P2 & _)|(_ & P2)]; [auto|discriminate].
  - apply rput_ok in P. destruct P as (Ho & x1 & E & ->). inversion E; subst x1.
    split; [reflexivity|]. split; [reflexivity|]. split; [|split; [|intros e' []]].
    + intros d'. destruct (Nat.eq_dec d d') as [<-|N].
      * right. rewrite lookup_upd_eq. auto.
      * left. apply lookup_upd_neq. exact N.
    + intros _. split; [apply lookup_upd_eq|exact Ho].
Qed.

Lemma m_put_replica o st d x st' r : m_put o st d x = (st', r) ->
  rnd st' = rnd st /\ calls r = [(RA, KPut, d); (RB, KPut, d)]
  /\ (forall y,
        (forall d', lookup (sto st' y) d' = lookup (sto st y) d'
                    \/ (d' = d /\ lookup (sto st' y) d' = Some x /\ o y KPut d = 0%Z))
        /\ (errs r = [] -> lookup (sto st' y) d = Some x /\ o y KPut d = 0%Z))
  /\ (forall e, In e (errs r) ->
        exists y, etag_of e = TBackend y /\ ecode e = o y KPut d /\ ecode e <> 0%Z).
Proof.
  unfold m_put.
  destruct (put_branch o RA d x st) as [st1 ea] eqn:B1.
  destruct (put_branch o RB d x st1) as [st2 eb] eqn:B2.
  intros [= <- <-]. cbn [errs calls].
  apply put_branch_spec in B1. apply put_branch_spec in B2.
  destruct B1 as (O1 & R1 & F1 & A1 & E1). destruct B2 as (O2 & R2 & F2 & A2 & E2).
  cbn [other sto] in O1, O2.
  split; [congruence|]. split; [reflexivity|]. split.
  - intros y. split.
    + destruct y; cbn [sto]; [rewrite O2; exact F1|rewrite <- O1; exact F2].
    + intros E. apply app_eq_nil in E. destruct E as [Ea Eb].
      destruct y; cbn [sto]; [rewrite O2; exact (A1 Ea)|exact (A2 Eb)].
  - intros e I. apply in_app_or in I. destruct I as [I|I]; [exists RA; apply E1|exists RB; apply E2]; exact I.
Qed.

Theorem put_ok_both_proof : forall o st d x st' r,
  m_put o st d x = (st', r) -> errs r = [] ->
  lookup (sA st') d = Some x /\ lookup (sB st') d = Some x.
Proof.
  intros o st d x st' r H E. destruct (m_put_replica _ _ _ _ _ _ H) as (_ & _ & Y & _).
  split; [apply (Y RA)|apply (Y RB)]; exact E.
Qed.

(** A replica is changed by an upload only at the uploaded digest, and only
    by storing the uploaded content; a failing branch leaves it unchanged. *)
Lemma put_frame : forall o st d x st' r,
  m_put o st d x = (st', r) ->
  rnd st' = rnd st /\
  forall y d', lookup (sto st' y) d' = lookup (sto st y) d'
               \/ (d' = d /\ lookup (sto st' y) d' = Some x /\ o y KPut d = 0%Z).
Proof.
  intros o st d x st' r H. destruct (m_put_replica _ _ _ _ _ _ H) as (R & _ & Y & _).
  split; [exact R|]. intros y. apply Y.
Qed.

(** The two goroutines of [Put] touch disjoint replicas: their order is irrelevant. *)
Lemma put_branches_commute_proof : forall o d x st,
  let '(s1, e1) := put_branch o RA d x st in
  let '(s2, e2) := put_branch o RB d x s1 in
  let '(t1, f1) := put_branch o RB d x st in
  let '(t2, f2) := put_branch o RA d x t1 in
  s2 = t2 /\ e1 = f2 /\ e2 = f1.
Proof.
  intros o d x st. unfold put_branch. cbn.
  destruct (rput o RA (sA st) d (BData x)) as [sa' [ea|]] eqn:Ha;
  destruct (rput o RB (sB st) d (BData x)) as [sb' [eb|]] eqn:Hb; cbn;
  rewrite ?Ha, ?Hb; cbn; auto.
Qed.

Definition firstR (st : mstate) : rid := first_of (S (rnd st)).

Inductive get_outcome (o : oracle) (st : mstate) (d : nat) (F : rid) (st1 : mstate)
  : mstate -> result -> Prop :=
| GetHit x :
    rget o F (sto st F) d = BData x ->
    get_outcome o st d F st1 st1 (mkres [x] [] [(F, KGet, d)])
| GetFail c :
    rget o F (sto st F) d = BErr c F -> c <> NF ->
    get_outcome o st d F st1 st1 (mkres [] [mkerr c (TBackend F) F] [(F, KGet, d)])
| GetBothFail c :
    rget o F (sto st F) d = BErr NF F ->
    rget o (other F) (sto st (other F)) d = BErr c (other F) ->
    get_outcome o st d F st1 st1
      (mkres [] [sel_wrap (other F) (c, other F)] [(F, KGet, d); (other F, KGet, d); (F, KPut, d)])
| GetRepair x :
    rget o F (sto st F) d = BErr NF F ->
    rget o (other F) (sto st (other F)) d = BData x -> o F KPut d = 0%Z ->
    get_outcome o st d F st1 (set_sto st1 F (upd (sto st F) d x))
      (mkres [x] [] [(F, KGet, d); (other F, KGet, d); (F, KPut, d)])
| GetRepairFail x :
    rget o F (sto st F) d = BErr NF F ->
    rget o (other F) (sto st (other F)) d = BData x -> o F KPut d <> 0%Z ->
    get_outcome o st d F st1 st1
      (mkres [] [sel_wrap (other F) (o F KPut d, F)] [(F, KGet, d); (other F, KGet, d); (F, KPut, d)]).

Lemma m_get_outcome o st d st' r : m_get o st d = (st', r) ->
  get_outcome o st d (firstR st) (set_rnd st (S (rnd st))) st' r.
Proof.
  unfold m_get. fold (firstR st). set (F := firstR st).
  destruct (rget o F (sto st F) d) as [x|c og] eqn:G1.
  { intros [= <- <-]. constructor. exact G1. }
  destruct (rget_origin _ _ _ _ _ _ G1) as [-> _].
  destruct (Z.eqb_spec c NF) as [->|N]; [|intros [= <- <-]; constructor; assumption].
  destruct (rget o (other F) (sto st (other F)) d) as [x|c2 og2] eqn:G2.
  2:{ destruct (rget_origin _ _ _ _ _ _ G2) as [-> _]. intros [= <- <-]. constructor; assumption. }
  unfold rput. destruct (Z.eqb_spec (o F KPut d) 0) as [P|P]; intros [= <- <-]; econstructor; eassumption.
Qed.

Lemma get_rnd o st d st' r : m_get o st d = (st', r) -> rnd st' = S (rnd st).
Proof.
  intros H. destruct (m_get_outcome _ _ _ _ _ H); try reflexivity. apply rnd_set_sto.
Qed.

(** For every oracle: a successful read returns a content that one of the
    replicas held, and afterwards the first-consulted replica holds it. *)
Theorem get_ok_sound_proof : forall o st d st' r,
  m_get o st d = (st', r) -> errs r = [] ->
  exists x, okv r = [x]
    /\ (lookup (sto st (firstR st)) d = Some x
        \/ (lookup (sto st (other (firstR st))) d = Some x
            /\ rget o (firstR st) (sto st (firstR st)) d = BErr NF (firstR st)))
    /\ lookup (sto st' (firstR st)) d = Some x.
Proof.
  intros o st d st' r H E.
  destruct (m_get_outcome _ _ _ _ _ H) as [x G|c G N|c G1 G2|x G1 G2 P|x G1 G2 P];
    try discriminate E; exists x.
  - apply rget_data in G. rewrite sto_set_rnd. tauto.
  - apply rget_data in G2. rewrite sto_set_same, lookup_upd_eq. tauto.
Qed.

Lemma get_frame : forall o st d st' r,
  m_get o st d = (st', r) ->
  sto st' (other (firstR st)) = sto st (other (firstR st))
  /\ forall d', lookup (sto st' (firstR st)) d' = lookup (sto st (firstR st)) d'
       \/ (d' = d /\ errs r = []
           /\ rget o (firstR st) (sto st (firstR st)) d = BErr NF (firstR st)
           /\ lookup (sto st (other (firstR st))) d <> None
           /\ lookup (sto st' (firstR st)) d' = lookup (sto st (other (firstR st))) d).
Proof.
  intros o st d st' r H.
  destruct (m_get_outcome _ _ _ _ _ H) as [x G|c G N|c G1 G2|x G1 G2 P|x G1 G2 P];
    try (rewrite !sto_set_rnd; auto).
  rewrite sto_set_other, sto_set_same, sto_set_rnd. split; [reflexivity|].
  apply rget_data in G2. destruct G2 as [_ L2].
  intros d'. destruct (Nat.eq_dec d d') as [<-|Nd].
  - right. rewrite lookup_upd_eq, L2. repeat split; auto. discriminate.
  - left. apply lookup_upd_neq. exact Nd.
Qed.

Lemma rget_err_unfaulted o r s d c og :
  o r KGet d = 0%Z -> rget o r s d = BErr c og -> c = NF /\ lookup s d = None.
Proof.
  intros O. unfold rget. rewrite O. cbn [Z.eqb].
  destruct (lookup s d); [discriminate|]. intros [= <- _]. auto.
Qed.

(** Absent faults: success iff at least one replica holds the object; the
    content is the first-consulted replica's if it holds one, else the
    other's; a failure is a plain NOT_FOUND. *)
Theorem get_iff_either_proof : forall o st d st' r,
  no_faults o -> m_get o st d = (st', r) ->
  (errs r = [] <-> (lookup (sA st) d <> None \/ lookup (sB st) d <> None))
  /\ (errs r <> [] -> errs r = [mkerr NF TNone (other (firstR st))] /\ okv r = [])
  /\ (forall x, lookup (sto st (firstR st)) d = Some x -> okv r = [x])
  /\ (forall x, lookup (sto st (firstR st)) d = None ->
                lookup (sto st (other (firstR st))) d = Some x -> okv r = [x]).
Proof.
  intros o st d st' r NFo H.
  assert (HE : (lookup (sA st) d <> None \/ lookup (sB st) d <> None)
               <-> (lookup (sto st (firstR st)) d <> None \/ lookup (sto st (other (firstR st))) d <> None)).
  { destruct (firstR st); cbn; tauto. }
  rewrite HE. clear HE.
  destruct (m_get_outcome _ _ _ _ _ H) as [x G|c G N|c G1 G2|x G1 G2 P|x G1 G2 P]; cbn [errs okv].
  - apply rget_data in G. intuition congruence.
  - apply (rget_err_unfaulted _ _ _ _ _ _ (NFo _ _ _)) in G. tauto.
  - apply (rget_err_unfaulted _ _ _ _ _ _ (NFo _ _ _)) in G1, G2. destruct G2 as [-> L2].
    change (sel_wrap _ _) with (mkerr NF TNone (other (firstR st))). intuition congruence.
  - apply (rget_err_unfaulted _ _ _ _ _ _ (NFo _ _ _)) in G1. apply rget_data in G2. intuition congruence.
  - rewrite NFo in P. contradiction.
Qed.

Theorem get_repairs_first_consulted_proof : forall o st d x st' r,
  no_faults o -> m_get o st d = (st', r) ->
  lookup (sto st (firstR st)) d = None ->
  lookup (sto st (other (firstR st))) d = Some x ->
  errs r = [] /\ okv r = [x]
  /\ lookup (sto st' (firstR st)) d = Some x
  /\ sto st' (other (firstR st)) = sto st (other (firstR st))
  /\ (forall d', d' <> d -> lookup (sto st' (firstR st)) d' = lookup (sto st (firstR st)) d').
Proof.
  intros o st d x st' r NFo H L1 L2.
  destruct (get_iff_either_proof o st d st' r NFo H) as (Hiff & _ & _ & Hv).
  assert (E : errs r = []).
  { apply Hiff. destruct (firstR st); cbn in *; [right|left]; congruence. }
  destruct (get_ok_sound_proof o st d st' r H E) as (x' & Hx & _ & Hpost).
  rewrite (Hv x L1 L2) in Hx. inversion Hx; subst x'.
  destruct (get_frame o st d st' r H) as (Ho & Hf).
  repeat split; auto.
  intros d' Nd. destruct (Hf d') as [Hd|(Hd & _)]; [exact Hd|contradiction].
Qed.

(** Exact attribution of read failures (c is a failure other than NOT_FOUND). *)
Lemma get_first_failure o st d st' r c :
  m_get o st d = (st', r) -> c <> 0%Z -> c <> NF -> o (firstR st) KGet d = c ->
  errs r = [mkerr c (TBackend (firstR st)) (firstR st)].
Proof.
  unfold m_get. fold (firstR st). intros H C0 CN E. revert H. unfold rget at 1. rewrite E.
  destruct (Z.eqb_spec c 0); [contradiction|].
  destruct (Z.eqb_spec c NF); [contradiction|].
  intros H; inversion H; reflexivity.
Qed.

Lemma get_second_failure o st d st' r c :
  m_get o st d = (st', r) -> c <> 0%Z -> c <> NF ->
  rget o (firstR st) (sto st (firstR st)) d = BErr NF (firstR st) ->
  o (other (firstR st)) KGet d = c ->
  errs r = [mkerr c (TBackend (other (firstR st))) (other (firstR st))].
Proof.
  unfold m_get. fold (firstR st). intros H C0 CN G1 E. revert H. rewrite G1.
  change (NF =? NF)%Z with true. cbn iota.
  unfold rget at 1. rewrite E. destruct (Z.eqb_spec c 0); [contradiction|].
  intros H; inversion H; cbn. unfold sel_wrap; cbn.
  destruct (Z.eqb_spec c NF); [contradiction|]. reflexivity.
Qed.

(** A failing repair upload on the first-consulted replica comes back under
    the name of the SECOND backend (the replication source), carrying the
    first replica's answer; nothing is stored. *)
Lemma get_repair_failure o st d st' r c x :
  m_get o st d = (st', r) -> c <> 0%Z -> c <> NF ->
  rget o (firstR st) (sto st (firstR st)) d = BErr NF (firstR st) ->
  rget o (other (firstR st)) (sto st (other (firstR st))) d = BData x ->
  o (firstR st) KPut d = c ->
  errs r = [mkerr c (TBackend (other (firstR st))) (firstR st)]
  /\ sA st' = sA st /\ sB st' = sB st.
Proof.
  unfold m_get. fold (firstR st). intros H C0 CN G1 G2 E. revert H. rewrite G1.
  change (NF =? NF)%Z with true. cbn iota. rewrite G2.
  unfold rput. rewrite E. destruct (Z.eqb_spec c 0); [contradiction|].
  intros H; inversion H; cbn. unfold sel_wrap; cbn.
  destruct (Z.eqb_spec c NF); [contradiction|]. auto.
Qed.
