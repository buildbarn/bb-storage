(** C17, read caching and read fallback: what Put and the replicators change,
    reads through a replicator stack (soundness, population of the fast
    backend, completeness without backend failures), FindMissing through a
    fallback, GetFromComposite, and the backend name prepended to errors. *)
From Coq Require Import List ZArith Bool Arith Lia.
From BBS Require Import Common.ListX Compose.Caching.
Import ListNotations.
Open Scope Z_scope.

Lemma memb_in d s : memb d s = true <-> In d s.
Proof.
  unfold memb. rewrite existsb_exists. split.
  - intros (x & Hin & He). apply Nat.eqb_eq in He. subst. exact Hin.
  - intros H. exists d. split; [exact H|apply Nat.eqb_refl].
Qed.

Lemma memb_insert x d s : memb x (insert_sorted d s) = true <-> x = d \/ memb x s = true.
Proof. rewrite !memb_in. apply insert_sorted_in. Qed.

Lemma record_spec b o args s :
  let (f, s1) := record b o args s in
  sa s1 = sa s /\ sb s1 = sb s /\ lg s1 = mkcall b o args f :: lg s /\
  (fl s = [] -> f = 0 /\ fl s1 = []).
Proof.
  unfold record. destruct (fl s) as [|f r] eqn:E; cbn; repeat split; auto; discriminate.
Qed.

Lemma contents_record b b' o args s : contents b (snd (record b' o args s)) = contents b s.
Proof. unfold record. destruct (fl s); destruct b; reflexivity. Qed.

(** [bget b] unfolds to [bread CGet b], [bgfc b] to [bread CGfc b]. *)
Definition bread (o : cop) (b : bk) (d : nat) (s : st) : Z * st :=
  let (f, s1) := record b o [d] s in
  if f =? 0 then ((if memb d (contents b s1) then 0 else 5), s1) else (f, s1).

Lemma bread_spec o b d s c s1 : bread o b d s = (c, s1) ->
  sa s1 = sa s /\ sb s1 = sb s /\
  (c = 0 -> memb d (contents b s) = true) /\
  (fl s = [] -> fl s1 = [] /\ c = if memb d (contents b s) then 0 else 5).
Proof.
  unfold bread. pose proof (record_spec b o [d] s) as R.
  pose proof (contents_record b b o [d] s) as C.
  destruct (record b o [d] s) as [f s0]. cbn in C. destruct R as (Ra & Rb & _ & Rf).
  destruct (f =? 0) eqn:Ef; intros H; inversion H; subst; clear H.
  - rewrite C. repeat split; auto.
    + destruct (memb d (contents b s)); [reflexivity|discriminate].
    + apply Rf; assumption.
  - repeat split; auto.
    + intros ->. discriminate.
    + apply Rf; assumption.
    + destruct (Rf H) as [-> _]. discriminate.
Qed.

Lemma bfm_spec b ds s c m s1 : bfm b ds s = (c, m, s1) ->
  sa s1 = sa s /\ sb s1 = sb s /\
  (c = 0 -> m = filter (fun d => negb (memb d (contents b s))) ds) /\
  (fl s = [] -> fl s1 = [] /\ c = 0).
Proof.
  unfold bfm. pose proof (record_spec b CFm ds s) as R.
  pose proof (contents_record b b CFm ds s) as C.
  destruct (record b CFm ds s) as [f s0]. cbn in C. destruct R as (Ra & Rb & _ & Rf).
  destruct (f =? 0) eqn:Ef; intros H; inversion H; subst; clear H.
  - rewrite C. repeat split; auto. apply Rf; assumption.
  - repeat split; auto.
    + intros ->. discriminate.
    + apply Rf; assumption.
    + destruct (Rf H) as [-> _]. discriminate.
Qed.

(** [Put] changes only the addressed backend, only by adding [d], only on success. *)
Lemma bput_spec b d buf s c s1 : bput b d buf s = (c, s1) ->
  (c = 0 -> buf = 0 /\ contents b s1 = insert_sorted d (contents b s)) /\
  (c <> 0 -> contents b s1 = contents b s) /\
  (forall b', b' <> b -> contents b' s1 = contents b' s) /\
  (exists f, lg s1 = mkcall b CPut [d] f :: lg s) /\
  (fl s = [] -> fl s1 = [] /\ c = buf).
Proof.
  unfold bput. pose proof (record_spec b CPut [d] s) as R.
  destruct (record b CPut [d] s) as [f s0]. destruct R as (Ra & Rb & Rl & Rf).
  assert (C : forall b', contents b' s0 = contents b' s) by (intros []; cbn; assumption).
  destruct (f =? 0) eqn:Ef; cbn [negb].
  - apply Z.eqb_eq in Ef. subst f.
    destruct (buf =? 0) eqn:Eb; cbn [negb]; intros H; inversion H; subst; clear H.
    + apply Z.eqb_eq in Eb. subst buf.
      split; [intros _; split; [reflexivity|destruct b; cbn; rewrite ?Ra, ?Rb; reflexivity]|].
      split; [intros Hc; contradiction Hc; reflexivity|].
      split; [intros b' Hb; destruct b, b'; try contradiction; cbn; rewrite ?Ra, ?Rb; reflexivity|].
      split; [exists 0; destruct b; cbn; exact Rl|].
      intros Hf. destruct (Rf Hf) as [_ Hf1]. split; [destruct b; cbn; exact Hf1|reflexivity].
    + apply Z.eqb_neq in Eb.
      split; [intros ->; contradiction|].
      split; [intros _; apply C|].
      split; [intros b' _; apply C|].
      split; [exists 0; exact Rl|].
      intros Hf. destruct (Rf Hf) as [_ Hf1]. split; [exact Hf1|reflexivity].
  - apply Z.eqb_neq in Ef. intros H; inversion H; subst; clear H.
    split; [intros ->; contradiction|].
    split; [intros _; apply C|].
    split; [intros b' _; apply C|].
    split; [exists c; exact Rl|].
    intros Hf. destruct (Rf Hf) as [-> _]. contradiction.
Qed.

(** ** Replicators: the sink only grows, by objects of the source; the source is untouched. *)
Definition grows (s s1 : st) : Prop :=
  sb s1 = sb s /\
  (forall x, memb x (sa s) = true -> memb x (sa s1) = true) /\
  (forall x, memb x (sa s1) = true -> memb x (sa s) = true \/ memb x (sb s) = true).

Lemma grows_refl s : grows s s.
Proof. repeat split; auto. Qed.

Lemma grows_trans s s1 s2 : grows s s1 -> grows s1 s2 -> grows s s2.
Proof.
  intros (A1 & B1 & C1) (A2 & B2 & C2). repeat split.
  - congruence.
  - auto.
  - intros x H. destruct (C2 x H) as [H1|H1]; [auto|]. right. rewrite <- A1. exact H1.
Qed.

Lemma grows_same s s1 : sa s1 = sa s -> sb s1 = sb s -> grows s s1.
Proof. intros A B. unfold grows. rewrite A, B. auto. Qed.

Lemma copy_step d s b s1 c s2 : bget BB d s = (b, s1) -> bput BA d b s1 = (c, s2) ->
  grows s s2 /\ (c = 0 -> memb d (sa s2) = true /\ b = 0) /\
  (fl s = [] -> fl s2 = [] /\ c = (if memb d (sb s) then 0 else 5) /\ b = c).
Proof.
  intros G P. apply bread_spec in G. destruct G as (Ga & Gb & G0 & Gf).
  apply bput_spec in P. destruct P as (P0 & Pn & Po & _ & Pf).
  assert (Hb : sb s2 = sb s). { rewrite <- Gb. apply (Po BB). discriminate. }
  split; [|split].
  - split; [exact Hb|]. destruct (Z.eq_dec c 0) as [Hc|Hc].
    + destruct (P0 Hc) as [Hbuf Hins]. cbn in Hins. split.
      * intros x Hx. rewrite Hins. apply memb_insert. right. rewrite Ga. exact Hx.
      * intros x Hx. rewrite Hins in Hx. apply memb_insert in Hx. destruct Hx as [->|Hx].
        -- right. apply G0. exact Hbuf.
        -- left. rewrite <- Ga. exact Hx.
    + specialize (Pn Hc). cbn in Pn. rewrite Pn, Ga. auto.
  - intros Hc. destruct (P0 Hc) as [Hbuf Hins]. cbn in Hins. split; [|exact Hbuf].
    rewrite Hins. apply memb_insert. left. reflexivity.
  - intros Hf. destruct (Gf Hf) as [Hf1 Hbv]. destruct (Pf Hf1) as [Hf2 Hcv].
    cbn [contents] in Hbv. split; [exact Hf2|]. split; [rewrite Hcv; exact Hbv|symmetry; exact Hcv].
Qed.

Lemma local_multiple_spec ds : forall s c s1, local_multiple ds s = (c, s1) ->
  grows s s1 /\ (c = 0 -> forall d, In d ds -> memb d (sa s1) = true) /\
  (fl s = [] -> fl s1 = [] /\ ((forall d, In d ds -> memb d (sb s) = true) -> c = 0)).
Proof.
  induction ds as [|d r IH]; cbn [local_multiple]; intros s c s1 H.
  - inversion H; subst. split; [apply grows_refl|]. split; [intros _ d []|]. auto.
  - destruct (bget BB d s) as [b s0] eqn:G. destruct (bput BA d b s0) as [c0 s2] eqn:P.
    destruct (copy_step _ _ _ _ _ _ G P) as (Gr & C0 & Cf).
    destruct (c0 =? 0) eqn:Ec.
    + apply Z.eqb_eq in Ec. subst c0. destruct (IH _ _ _ H) as (Gr2 & I0 & If).
      split; [eapply grows_trans; eassumption|]. split.
      * intros Hc x [->|Hx]; [|apply I0; assumption].
        destruct Gr2 as (_ & M & _). apply M. apply C0. reflexivity.
      * intros Hf. destruct (Cf Hf) as (Hf2 & _ & _). destruct (If Hf2) as [Hf3 Hall].
        split; [exact Hf3|]. intros Hin. apply Hall. intros x Hx.
        destruct Gr as (Hsb & _ & _). rewrite Hsb. apply Hin. right. exact Hx.
    + apply Z.eqb_neq in Ec. inversion H; subst. split; [exact Gr|]. split; [intros; contradiction|].
      intros Hf. destruct (Cf Hf) as (Hf2 & Hcv & _). split; [exact Hf2|].
      intros Hin. rewrite (Hin d (or_introl eq_refl)) in Hcv. contradiction.
Qed.

Lemma rmultiple_grows r : forall ds s c s1, rmultiple r ds s = (c, s1) -> grows s s1.
Proof.
  induction r as [| |r IH|r IH]; cbn [rmultiple]; intros ds s c s1 H.
  - apply local_multiple_spec in H. apply H.
  - inversion H; subst. apply grows_refl.
  - revert s c s1 H. induction ds as [|d rest IHd]; intros s c s1 H.
    + inversion H; subst. apply grows_refl.
    + destruct (bfm BA [d] s) as [[c0 miss] s0] eqn:F.
      apply bfm_spec in F. destruct F as (Fa & Fb & _ & _).
      pose proof (grows_same s s0 Fa Fb) as G0.
      destruct (c0 =? 0); cbn [negb] in H.
      * destruct miss as [|x miss'].
        -- eapply grows_trans; [exact G0|]. eapply IHd. exact H.
        -- destruct (rmultiple r [d] s0) as [c2 s2] eqn:R. apply IH in R.
           destruct (c2 =? 0).
           ++ eapply grows_trans; [exact G0|]. eapply grows_trans; [exact R|]. eapply IHd. exact H.
           ++ inversion H; subst. eapply grows_trans; eassumption.
      * inversion H; subst. exact G0.
  - eapply IH. exact H.
Qed.

Lemma rmultiple_one r : copying r = true -> forall d s c s1, fl s = [] -> memb d (sa s) = false ->
  rmultiple r [d] s = (c, s1) ->
  fl s1 = [] /\ (if memb d (sb s) then c = 0 /\ memb d (sa s1) = true else c = 5).
Proof.
  induction r as [| |r IH|r IH]; cbn [copying]; intros Hc d s c s1 Hf Ha H; try discriminate.
  - cbn [rmultiple local_multiple] in H.
    destruct (bget BB d s) as [b s0] eqn:G. destruct (bput BA d b s0) as [c0 s2] eqn:P.
    destruct (copy_step _ _ _ _ _ _ G P) as (_ & C0 & Cf). destruct (Cf Hf) as (Hf2 & Hcv & _).
    destruct (c0 =? 0) eqn:Ec; injection H as <- <-.
    + apply Z.eqb_eq in Ec. split; [exact Hf2|]. destruct (memb d (sb s)); [|rewrite Ec in Hcv; discriminate].
      split; [reflexivity|]. apply C0. exact Ec.
    + split; [exact Hf2|]. destruct (memb d (sb s)); [rewrite Hcv in Ec; discriminate|exact Hcv].
  - cbn [rmultiple] in H. destruct (bfm BA [d] s) as [[c0 miss] s0] eqn:F. apply bfm_spec in F.
    destruct F as (Fa & Fb & F0 & Ff). destruct (Ff Hf) as [Hf0 ->]. specialize (F0 eq_refl).
    cbn [contents filter] in F0. rewrite Ha in F0. cbn [negb] in F0. subst miss. cbn [Z.eqb negb] in H.
    destruct (rmultiple r [d] s0) as [c2 s2] eqn:R.
    assert (Ha0 : memb d (sa s0) = false) by (rewrite Fa; exact Ha).
    destruct (IH Hc d s0 c2 s2 Hf0 Ha0 R) as [Hf2 Hres]. rewrite Fb in Hres.
    destruct (c2 =? 0) eqn:Ec; injection H as <- <-; split; try exact Hf2.
    + destruct (memb d (sb s)); [|rewrite Hres in Ec; discriminate]. split; [reflexivity|apply Hres].
    + destruct (memb d (sb s)); [destruct Hres as [Hz _]; rewrite Hz in Ec; discriminate|exact Hres].
  - cbn [rmultiple] in H. eapply IH; eassumption.
Qed.

(** ** Reads through a replicator: [Get] and [GetFromComposite] differ in the kind of read ([o]) and in
    the replicator's operation ([X]: [rsingle r] / [rcomposite r]); [read_ok r X] is what both need of [X]. *)
Definition read_ok (r : repl) (X : nat -> st -> Z * st) : Prop := forall d s c s1, X d s = (c, s1) ->
  grows s s1 /\
  (c = 0 -> memb d (sa s1) = true \/ (r = RNoop /\ memb d (sb s) = true)) /\
  (copying r = true \/ r = RNoop -> fl s = [] -> memb d (sa s) = false -> c = if memb d (sb s) then 0 else 5).

Lemma bread_ok o : read_ok RNoop (bread o BB).
Proof.
  intros d s c s1 H. apply bread_spec in H. destruct H as (Ha & Hb & H0 & Hf).
  split; [apply grows_same; assumption|]. split.
  - intros Hc. right. split; [reflexivity|apply H0, Hc].
  - intros _ Hfl _. exact (proj2 (Hf Hfl)).
Qed.

Lemma local_single_ok : read_ok RLocal local_single.
Proof.
  intros d s c s1 H. unfold local_single in H.
  destruct (bget BB d s) as [b s0] eqn:G. destruct (bput BA d b s0) as [c0 s2] eqn:P.
  destruct (copy_step _ _ _ _ _ _ G P) as (Gr & C0 & Cf).
  destruct (Z.eqb_spec b 0) as [Eb|Eb]; injection H as <- <-; (split; [exact Gr|split]).
  - intros Hc. left. apply C0, Hc.
  - intros _ Hf _. apply (Cf Hf).
  - intros Hc. contradiction.
  - intros _ Hf _. destruct (Cf Hf) as (_ & Hcv & ->). exact Hcv.
Qed.

Definition sink_nf (o : cop) (d : nat) (s : st) : Z * st :=
  let (b, s1) := bread o BA d s in ((if b =? 5 then 13 else b), s1).
Definition deco (o : cop) (r : repl) (d : nat) (s : st) : Z * st :=
  let (c, s1) := rmultiple r [d] s in if c =? 0 then sink_nf o d s1 else (c, s1).

Lemma deco_ok o r : r <> RNoop -> read_ok r (deco o r).
Proof.
  intros Hn d s c s1 H. unfold deco in H. destruct (rmultiple r [d] s) as [c0 s0] eqn:R.
  pose proof (rmultiple_grows _ _ _ _ _ R) as G.
  assert (One : copying r = true \/ r = RNoop -> fl s = [] -> memb d (sa s) = false ->
                fl s0 = [] /\ (if memb d (sb s) then c0 = 0 /\ memb d (sa s0) = true else c0 = 5)).
  { intros [Hc|Hc] Hf Ha; [|contradiction]. exact (rmultiple_one r Hc d s c0 s0 Hf Ha R). }
  destruct (Z.eqb_spec c0 0) as [Ec|Ec].
  - unfold sink_nf in H. destruct (bread o BA d s0) as [b s2] eqn:B.
    apply bread_spec in B. destruct B as (Ba & Bb & B0 & Bf). injection H as <- <-.
    split; [eapply grows_trans; [exact G|apply grows_same; assumption]|]. split.
    + intros Hc. left. rewrite Ba. apply B0. destruct (b =? 5); [discriminate|exact Hc].
    + intros Hr Hf Ha. destruct (One Hr Hf Ha) as [Hf0 Hres]. destruct (Bf Hf0) as [_ Hb]. cbn [contents] in Hb.
      destruct (memb d (sb s)); [|congruence]. destruct Hres as [_ Hin]. rewrite Hin in Hb. subst b. reflexivity.
  - injection H as <- <-. split; [exact G|]. split; [intros Hc; contradiction|].
    intros Hr Hf Ha. destruct (One Hr Hf Ha) as [_ Hres]. destruct (memb d (sb s)); [destruct Hres; contradiction|exact Hres].
Qed.

Lemma rsingle_ok r : read_ok r (rsingle r).
Proof.
  destruct r; [exact local_single_ok|exact (bread_ok CGet)|apply (deco_ok CGet); discriminate|apply (deco_ok CGet); discriminate].
Qed.

Lemma rcomposite_ok r : read_ok r (rcomposite r).
Proof.
  destruct r; [apply (deco_ok CGfc); discriminate|exact (bread_ok CGfc)|apply (deco_ok CGfc); discriminate|apply (deco_ok CGfc); discriminate].
Qed.

Lemma rsingle_grows r d s c s1 : rsingle r d s = (c, s1) -> grows s s1.
Proof. intros H. exact (proj1 (rsingle_ok r d s c s1 H)). Qed.

Definition cread (o : cop) (X : nat -> st -> Z * st) (d : nat) (s : st) : Z * st :=
  let (b, s1) := bread o BA d s in if b =? 5 then X d s1 else (b, s1).

Lemma cread_ok o r X : read_ok r X -> forall d s c s1, cread o X d s = (c, s1) ->
  grows s s1 /\
  (c = 0 -> memb d (sa s1) = true \/ (r = RNoop /\ memb d (sb s) = true)) /\
  (copying r = true \/ r = RNoop -> fl s = [] -> c = if memb d (sa s) || memb d (sb s) then 0 else 5).
Proof.
  intros HX d s c s1 H. unfold cread in H. destruct (bread o BA d s) as [b s0] eqn:B.
  apply bread_spec in B. destruct B as (Ba & Bb & B0 & Bf). cbn [contents] in *.
  pose proof (grows_same s s0 Ba Bb) as G0. destruct (b =? 5) eqn:E5.
  - destruct (HX _ _ _ _ H) as (G & X0 & Xf). rewrite Ba, Bb in *. split; [eapply grows_trans; eassumption|].
    split; [exact X0|]. intros Hr Hf. destruct (Bf Hf) as [Hf0 Hb].
    destruct (memb d (sa s)); [subst b; discriminate|]. exact (Xf Hr Hf0 eq_refl).
  - injection H as <- <-. split; [exact G0|]. split.
    + intros Hc. left. rewrite Ba. apply B0, Hc.
    + intros _ Hf. destruct (Bf Hf) as [_ Hb]. destruct (memb d (sa s)); [exact Hb|subst b; discriminate].
Qed.

(** Soundness for every replicator stack and every fault sequence: an object
    is returned only if one of the backends held it. *)
Theorem cget_sound r d s s1 : cget r d s = (0, s1) ->
  memb d (sa s) = true \/ memb d (sb s) = true.
Proof.
  intros H. destruct (cread_ok CGet r _ (rsingle_ok r) _ _ _ _ H) as ((_ & _ & G) & C0 & _).
  destruct (C0 eq_refl) as [X|[_ X]]; [exact (G d X)|right; exact X].
Qed.

(** After a successful read through a copying replicator the object is in the
    fast / primary backend (every fault sequence). *)
Theorem cget_populates r d s s1 : copying r = true -> cget r d s = (0, s1) -> memb d (sa s1) = true.
Proof.
  intros Hc H. destruct (cread_ok CGet r _ (rsingle_ok r) _ _ _ _ H) as (_ & C0 & _).
  destruct (C0 eq_refl) as [X|[-> _]]; [exact X|discriminate Hc].
Qed.

(** Without backend failures, every copying stack and the non-copying
    replicator: the object is returned iff fast/primary or slow/secondary
    holds it, and NOT_FOUND is returned otherwise. *)
Theorem cget_complete_copying r d s : (copying r = true \/ r = RNoop) -> fl s = [] ->
  fst (cget r d s) = if memb d (sa s) || memb d (sb s) then 0 else 5.
Proof.
  intros Hr Hf. destruct (cget r d s) as [c s1] eqn:H.
  exact (proj2 (proj2 (cread_ok CGet r _ (rsingle_ok r) _ _ _ _ H)) Hr Hf).
Qed.

(** ** Put: exactly one backend call, a Put on the slow (read caching) /
    primary (fallback) backend; the other backend is untouched. *)
Theorem cput_only_target k d s c s1 : cput k d s = (c, s1) ->
  (exists f, lg s1 = mkcall (put_target k) CPut [d] f :: lg s) /\
  (forall b, b <> put_target k -> contents b s1 = contents b s) /\
  (c = 0 -> memb d (contents (put_target k) s1) = true).
Proof.
  unfold cput. intros H. apply bput_spec in H. destruct H as (H0 & _ & Ho & Hl & _).
  split; [exact Hl|]. split; [exact Ho|]. intros Hc. destruct (H0 Hc) as [_ Hi]. rewrite Hi.
  apply memb_insert. left. reflexivity.
Qed.

Lemma filter_filter {T} (f g : T -> bool) l : filter g (filter f l) = filter (fun x => f x && g x) l.
Proof.
  induction l as [|x l IH]; [reflexivity|]. cbn. destruct (f x); cbn; [destruct (g x)|]; rewrite IH; reflexivity.
Qed.

(* Of the objects the primary misses, those the secondary holds. *)
Lemma in_to_copy m1 sbv d :
  In d (filter (fun d => negb (memb d (filter (fun d => negb (memb d sbv)) m1))) m1) <-> In d m1 /\ memb d sbv = true.
Proof.
  rewrite filter_In, negb_true_iff. split; intros [H1 H2]; (split; [exact H1|]).
  - destruct (memb d sbv) eqn:M; [reflexivity|]. rewrite <- H2. apply memb_in, filter_In. rewrite M. auto.
  - destruct (memb d (filter _ m1)) eqn:M; [|reflexivity]. apply memb_in, filter_In in M. rewrite H2 in M. destruct M; discriminate.
Qed.

Theorem cfm_fallback_exact r ds s m s1 : cfm ReadFallback r ds s = (0, m, s1) ->
  m = filter (fun d => negb (memb d (sa s)) && negb (memb d (sb s))) ds.
Proof.
  cbn [cfm]. destruct (bfm BA ds s) as [[c1 m1] s0] eqn:F1. apply bfm_spec in F1.
  destruct F1 as (F1a & F1b & F10 & _).
  destruct (c1 =? 0) eqn:E1; cbn [negb]; [|intros H; inversion H; subst; cbn in *; discriminate].
  apply Z.eqb_eq in E1. specialize (F10 E1). cbn in F10.
  destruct (bfm BB m1 s0) as [[c2 m2] s2] eqn:F2. apply bfm_spec in F2.
  destruct F2 as (F2a & F2b & F20 & _).
  destruct (c2 =? 0) eqn:E2; cbn [negb]; [|intros H; inversion H; subst; cbn in *; discriminate].
  apply Z.eqb_eq in E2. specialize (F20 E2). cbn in F20.
  destruct (rmultiple r _ s2) as [c3 s3]. destruct (c3 =? 0) eqn:E3; intros H.
  - inversion H; subst. rewrite F1b. apply filter_filter.
  - destruct (c3 =? 5); inversion H; subst; cbn in E3; discriminate.
Qed.

(** Without backend failures (local replicator) it succeeds, and afterwards
    the primary holds everything of the request that either backend held. *)
Theorem cfm_fallback_total ds s : fl s = [] ->
  let '(c, m, s1) := cfm ReadFallback RLocal ds s in
  c = 0 /\ forall d, In d ds -> memb d (sb s) = true -> memb d (sa s1) = true.
Proof.
  intros Hf. cbn [cfm]. destruct (bfm BA ds s) as [[c1 m1] s0] eqn:F1. apply bfm_spec in F1.
  destruct F1 as (F1a & F1b & F10 & F1f). destruct (F1f Hf) as [Hf0 ->]. specialize (F10 eq_refl). cbn [contents] in F10.
  cbn [Z.eqb negb]. destruct (bfm BB m1 s0) as [[c2 m2] s2] eqn:F2. apply bfm_spec in F2.
  destruct F2 as (F2a & F2b & F20 & F2f). destruct (F2f Hf0) as [Hf2 ->]. specialize (F20 eq_refl). cbn [contents] in F20.
  cbn [Z.eqb negb rmultiple].
  destruct (local_multiple _ s2) as [c3 s3] eqn:LM. apply local_multiple_spec in LM.
  destruct LM as (Gr & L0 & Lf). destruct (Lf Hf2) as [_ Hall].
  subst m2. cbn [contents] in *.
  assert (Hc3 : c3 = 0).
  { apply Hall. intros d Hd. apply in_to_copy in Hd. rewrite F2b. apply Hd. }
  subst c3. cbn [Z.eqb]. split; [reflexivity|].
  intros d Hd Hsb. destruct (memb d (sa s)) eqn:Ma.
  - destruct Gr as (_ & M & _). apply M. rewrite F2a, F1a. exact Ma.
  - apply (L0 eq_refl). apply in_to_copy. split; [|rewrite F1b; exact Hsb].
    rewrite F10. apply filter_In. split; [exact Hd|]. rewrite Ma. reflexivity.
Qed.

Lemma copying_not_noop r : copying r = true -> r <> RNoop.
Proof. intros H ->. discriminate. Qed.

(** ** GetFromComposite through the composites (parent [p]; the child is
    served by whichever backend holds the parent). *)

(** Soundness, every replicator stack, every fault sequence: the child is
    returned only if one of the backends held the parent. *)
Theorem cgfc_sound r p s s1 : cgfc r p s = (0, s1) ->
  memb p (sa s) = true \/ memb p (sb s) = true.
Proof.
  intros H. destruct (cread_ok CGfc r _ (rcomposite_ok r) _ _ _ _ H) as ((_ & _ & G) & C0 & _).
  destruct (C0 eq_refl) as [X|[_ X]]; [exact (G p X)|right; exact X].
Qed.

(** After a successful composite read through any replicator that is not the
    bare non-copying one, the PARENT is in the fast / primary backend (every
    fault sequence): read caching's purpose. *)
Theorem cgfc_populates r p s s1 : r <> RNoop -> cgfc r p s = (0, s1) -> memb p (sa s1) = true.
Proof.
  intros Hn H. destruct (cread_ok CGfc r _ (rcomposite_ok r) _ _ _ _ H) as (_ & C0 & _).
  destruct (C0 eq_refl) as [X|[Hr _]]; [exact X|contradiction].
Qed.

(** Without backend failures, every copying stack and the non-copying
    replicator: the child is returned iff fast/primary or slow/secondary
    holds the parent; NOT_FOUND otherwise. *)
Theorem cgfc_complete_copying r p s : (copying r = true \/ r = RNoop) -> fl s = [] ->
  fst (cgfc r p s) = if memb p (sa s) || memb p (sb s) then 0 else 5.
Proof.
  intros Hr Hf. destruct (cgfc r p s) as [c s1] eqn:H.
  exact (proj2 (proj2 (cread_ok CGfc r _ (rcomposite_ok r) _ _ _ _ H)) Hr Hf).
Qed.

(** Read-through (no backend failure, copying stack): a parent that only the
    slow / secondary backend holds is served AND is in the fast / primary
    backend afterwards, while the slow / secondary backend is unchanged. *)
Theorem cgfc_read_through r p s : copying r = true -> fl s = [] ->
  memb p (sa s) = false -> memb p (sb s) = true ->
  fst (cgfc r p s) = 0 /\ memb p (sa (snd (cgfc r p s))) = true /\ sb (snd (cgfc r p s)) = sb s.
Proof.
  intros Hc Hf Ha Hb. destruct (cgfc r p s) as [c s1] eqn:E. cbn [fst snd].
  destruct (cread_ok CGfc r _ (rcomposite_ok r) _ _ _ _ E) as ((Gb & _) & C0 & Cf).
  specialize (Cf (or_introl Hc) Hf). rewrite Ha, Hb in Cf. cbn [orb] in Cf. subst c.
  split; [reflexivity|]. split; [|exact Gb].
  destruct (C0 eq_refl) as [X|[-> _]]; [exact X|discriminate Hc].
Qed.

(** No backend name is prepended to a read's error by ReadCaching. *)
Theorem read_pfx_caching first final : read_pfx ReadCaching first final = 0.
Proof. reflexivity. Qed.

(** The backend name prepended to a GetFromComposite error (fallback only) is
    "Primary" exactly when the primary's own answer is an error other than
    NOT_FOUND - which is then the result. *)
Theorem gfc_pfx_primary r p s : step_pfx ReadFallback r (OGfc p) s = 1 <->
  (fst (bgfc BA p s) <> 0 /\ fst (bgfc BA p s) <> 5).
Proof.
  cbn [step_pfx read_pfx]. destruct (fst (bgfc BA p s) =? 0) eqn:E0; [|destruct (fst (bgfc BA p s) =? 5) eqn:E5]; cbn [negb].
  - apply Z.eqb_eq in E0. split; [discriminate|]. intros [H _]. contradiction.
  - apply Z.eqb_eq in E5. split; [|intros [_ H]; contradiction].
    destruct ((fst (cgfc r p s) =? 0) || (fst (cgfc r p s) =? 5)); discriminate.
  - apply Z.eqb_neq in E0, E5. split; [intros _; split; assumption|reflexivity].
Qed.

Theorem gfc_primary_error_is_result r p s : fst (bgfc BA p s) <> 5 -> fst (cgfc r p s) = fst (bgfc BA p s).
Proof.
  intros H. unfold cgfc. destruct (bgfc BA p s) as [b s0]. cbn [fst] in *.
  apply Z.eqb_neq in H. rewrite H. reflexivity.
Qed.
