(** C11 — the property monitor of one operation ([check_op], [check_alt] of
    Compose/Mirrored.v) is silent on every step of the model, and on every
    observed result that differs from the model's only in what the code
    leaves unspecified: which ONE of the model's errors is reported, and the
    order of the replica calls of the two-goroutine operations.

    The clauses of [check_op] are restated one by one ([cl1] .. [cl9],
    [check_op_eq] is by reflexivity), shown to depend on the replica contents
    only at digests below [n] ([check_op_ext]) and then proved for the model's
    own contents ([check_op_model]). *)
From BBS Require Import Common.Sx Common.ListX Compose.Mirrored Compose.MirroredProofs
  Compose.MirroredFM Compose.MirroredHist.
From Coq Require Import Arith.
Local Open Scope nat_scope.

Lemma opt_eqb_refl a : opt_eqb a a = true.
Proof. destruct a; cbn; [apply Nat.eqb_refl|reflexivity]. Qed.
Lemma opt_eqb_of_eq a b : a = b -> opt_eqb a b = true.
Proof. intros ->. apply opt_eqb_refl. Qed.
Lemma list_nat_eqb_refl l : list_nat_eqb l l = true.
Proof. induction l as [|x l IH]; cbn; [reflexivity|]. rewrite Nat.eqb_refl. exact IH. Qed.
Lemma rid_eqb_refl x : rid_eqb x x = true.
Proof. destruct x; reflexivity. Qed.
Lemma present_true s d : present s d = true <-> lookup s d <> None.
Proof. unfold present, absent. destruct (lookup s d); cbn; split; congruence. Qed.
Lemma flag_true b id : b = true -> flag b id = [].
Proof. intros ->. reflexivity. Qed.
Lemma forallb_ext_in {T} (f g : T -> bool) l :
  (forall x, In x l -> f x = g x) -> forallb f l = forallb g l.
Proof.
  induction l as [|x l IH]; intros H; cbn; [reflexivity|].
  rewrite (H x (or_introl eq_refl)), IH; [reflexivity|]. intros y Hy. apply H. right. exact Hy.
Qed.
Lemma forallb_incl {T} (f : T -> bool) l1 l2 :
  incl l1 l2 -> forallb f l2 = true -> forallb f l1 = true.
Proof.
  intros Hi H. apply forallb_forall. intros x Hx.
  exact (proj1 (forallb_forall f l2) H x (Hi x Hx)).
Qed.
Lemma wf_on_in o cs r k d :
  wf_on o cs = true -> In (r, k, d) cs -> k <> KGet -> o r k d <> NF.
Proof.
  intros W I Nk. unfold wf_on in W.
  pose proof (proj1 (forallb_forall _ _) W _ I) as H. cbn beta iota in H.
  destruct k; [contradiction| | |]; cbn [kind_eqb orb] in H;
    apply Bool.negb_true_iff in H; apply Z.eqb_neq in H; exact H.
Qed.

Definition sel (a b : store) (x : rid) : store := match x with RA => a | RB => b end.

Definition fr1 (o : oracle) (pa pb : store) (p : op) (r : result) (qa qb : store) (d : nat) (x : rid) : bool :=
  match p with
  | OPut d' v => if Nat.eqb d d' then opt_eqb (lookup (sel qa qb x) d) (lookup (sel pa pb x) d)
                                     || opt_eqb (lookup (sel qa qb x) d) (Some v)
                 else opt_eqb (lookup (sel qa qb x) d) (lookup (sel pa pb x) d)
  | OGet d' => opt_eqb (lookup (sel qa qb x) d) (lookup (sel pa pb x) d)
               || (Nat.eqb d d' && (absent (sel pa pb x) d || (o x KGet d =? NF)%Z)
                   && rid_eqb x (first_called (calls r))
                   && present (sel pa pb (other x)) d
                   && opt_eqb (lookup (sel qa qb x) d) (lookup (sel pa pb (other x)) d))
  | OFM l => opt_eqb (lookup (sel qa qb x) d) (lookup (sel pa pb x) d)
             || (existsb (Nat.eqb d) l && absent (sel pa pb x) d && present (sel pa pb (other x)) d
                 && opt_eqb (lookup (sel qa qb x) d) (lookup (sel pa pb (other x)) d))
  | OCap => opt_eqb (lookup (sel qa qb x) d) (lookup (sel pa pb x) d)
  end.
Definition cl1 n o pa pb p r qa qb : bool :=
  forallb (fun d => forallb (fun x => fr1 o pa pb p r qa qb d x) [RA; RB]) (seq 0 n).

Definition okr (r : result) : bool := is_nil (errs r).
Definition cl2 (r : result) (qa qb : store) (d v : nat) : bool :=
  negb (okr r) || (opt_eqb (lookup qa d) (Some v) && opt_eqb (lookup qb d) (Some v)).
Definition cl3 (pa pb : store) (r : result) (qa qb : store) (d : nat) : bool :=
  negb (okr r) || match okv r with
                  | [v] => (opt_eqb (lookup pa d) (Some v) || opt_eqb (lookup pb d) (Some v))
                           && opt_eqb (lookup (sel qa qb (first_called (calls r))) d) (Some v)
                  | _ => false
                  end.
Definition cl4 (o : oracle) (pa pb : store) (r : result) (d : nat) : bool :=
  negb (forallb (fun c => ocall o c =? 0)%Z [(RA, KGet, d); (RB, KGet, d); (RA, KPut, d); (RB, KPut, d)])
  || Bool.eqb (okr r) (present pa d || present pb d).
Definition fm5 (pa pb qa qb : store) (d : nat) : bool :=
  Bool.eqb (present qa d) (present qb d)
  && (absent pa d || opt_eqb (lookup qa d) (lookup pa d))
  && (absent pb d || opt_eqb (lookup qb d) (lookup pb d))
  && (present pa d || absent pb d || opt_eqb (lookup qa d) (lookup pb d))
  && (present pb d || absent pa d || opt_eqb (lookup qb d) (lookup pa d)).
Definition cl5 (pa pb : store) (r : result) (qa qb : store) (l : list nat) : bool :=
  negb (okr r) ||
  (list_nat_eqb (okv r) (filter (fun d => absent pa d && absent pb d) (dedup_sort l))
   && forallb (fm5 pa pb qa qb) (dedup_sort l)).
Definition cl6 (o : oracle) (r : result) (l : list nat) : bool :=
  negb (forallb (fun c => ocall o c =? 0)%Z
          ([(RA, KFM, 0); (RB, KFM, 0)] ++
           flat_map (fun d => [(RA, KGet, d); (RB, KGet, d); (RA, KPut, d); (RB, KPut, d)]) (dedup_sort l)))
  || okr r.
Definition cl7 (o : oracle) (r : result) : bool :=
  negb (okr r) || forallb (fun c => (ocall o c =? 0)%Z
                                    || (kind_eqb (snd (fst c)) KGet && (ocall o c =? NF)%Z)) (calls r).
Definition cl8 (o : oracle) (pa pb : store) (p : op) (r : result) : bool :=
  forallb (fun e => negb (ecode e =? NF)%Z || negb (wf_on o (calls r))
                    || match p with
                       | OGet d => answers_nf o RA pa d && answers_nf o RB pb d
                       | _ => false
                       end) (errs r).
Definition cl9 (r : result) : bool :=
  forallb (fun e => (ecode e =? NF)%Z || tag_names (etag_of e)) (errs r).

Lemma check_op_eq n o pa pb p r qa qb :
  check_op n o pa pb p r qa qb =
  flag (cl1 n o pa pb p r qa qb) 1 ++
  match p with
  | OPut d v => flag (cl2 r qa qb d v) 2
  | OGet d => flag (cl3 pa pb r qa qb d) 3 ++ flag (cl4 o pa pb r d) 4
  | OFM l => flag (cl5 pa pb r qa qb l) 5 ++ flag (cl6 o r l) 6
  | OCap => []
  end ++ flag (cl7 o r) 7 ++ flag (cl8 o pa pb p r) 8 ++ flag (cl9 r) 9.
Proof. destruct p; reflexivity. Qed.

(** * The clauses look at the replicas only at digests below [n] *)
Definition eqn (n : nat) (s1 s2 : store) : Prop := forall d, d < n -> lookup s1 d = lookup s2 d.
Definition op_digests (p : op) : list nat :=
  match p with OGet d => [d] | OPut d _ => [d] | OFM l => l | OCap => [] end.
Definition op_in_range (n : nat) (p : op) : Prop := forall d, In d (op_digests p) -> d < n.

Lemma eqn_refl n s : eqn n s s.
Proof. intros d _. reflexivity. Qed.
Lemma eqn_absent n s s' d : eqn n s s' -> d < n -> absent s d = absent s' d.
Proof. intros H L. unfold absent. rewrite (H d L). reflexivity. Qed.
Lemma eqn_present n s s' d : eqn n s s' -> d < n -> present s d = present s' d.
Proof. intros H L. unfold present. rewrite (eqn_absent n s s' d H L). reflexivity. Qed.
Lemma eqn_sel n a b a' b' x : eqn n a a' -> eqn n b b' -> eqn n (sel a b x) (sel a' b' x).
Proof. destruct x; auto. Qed.

Lemma check_op_ext n o pa pb p r qa qb pa' pb' qa' qb' :
  eqn n pa pa' -> eqn n pb pb' -> eqn n qa qa' -> eqn n qb qb' -> op_in_range n p ->
  check_op n o pa pb p r qa qb = check_op n o pa' pb' p r qa' qb'.
Proof.
  intros Ha Hb Hqa Hqb Hr. rewrite !check_op_eq.
  assert (E1 : cl1 n o pa pb p r qa qb = cl1 n o pa' pb' p r qa' qb').
  { unfold cl1. apply forallb_ext_in. intros d Hd. apply in_seq in Hd.
    assert (Ld : d < n) by lia.
    apply forallb_ext_in. intros x _. unfold fr1.
    rewrite (eqn_sel n qa qb qa' qb' x Hqa Hqb d Ld), (eqn_sel n pa pb pa' pb' x Ha Hb d Ld),
      (eqn_sel n pa pb pa' pb' (other x) Ha Hb d Ld),
      (eqn_absent n _ _ d (eqn_sel n pa pb pa' pb' x Ha Hb) Ld),
      (eqn_present n _ _ d (eqn_sel n pa pb pa' pb' (other x) Ha Hb) Ld).
    reflexivity. }
  assert (E8 : cl8 o pa pb p r = cl8 o pa' pb' p r).
  { unfold cl8. destruct p as [d|d v|l|]; try reflexivity.
    assert (Ld : d < n) by (apply Hr; left; reflexivity).
    unfold answers_nf. rewrite (eqn_absent n pa pa' d Ha Ld), (eqn_absent n pb pb' d Hb Ld). reflexivity. }
  rewrite E1, E8. f_equal. f_equal.
  destruct p as [d|d v|l|]; [| | |reflexivity].
  - assert (Ld : d < n) by (apply Hr; left; reflexivity).
    unfold cl3, cl4.
    rewrite (Ha d Ld), (Hb d Ld), (eqn_sel n qa qb qa' qb' _ Hqa Hqb d Ld),
      (eqn_present n pa pa' d Ha Ld), (eqn_present n pb pb' d Hb Ld). reflexivity.
  - assert (Ld : d < n) by (apply Hr; left; reflexivity).
    unfold cl2. rewrite (Hqa d Ld), (Hqb d Ld). reflexivity.
  - assert (Ll : forall d, In d (dedup_sort l) -> d < n).
    { intros d Hd. apply Hr. cbn [op_digests]. apply dedup_sort_in. exact Hd. }
    unfold cl5.
    rewrite (filter_ext_in (fun d => absent pa d && absent pb d) (fun d => absent pa' d && absent pb' d)).
    2:{ intros d Hd. rewrite (eqn_absent n pa pa' d Ha (Ll d Hd)), (eqn_absent n pb pb' d Hb (Ll d Hd)). reflexivity. }
    rewrite (forallb_ext_in (fm5 pa pb qa qb) (fm5 pa' pb' qa' qb')); [reflexivity|].
    intros d Hd. pose proof (Ll d Hd) as Ld. unfold fm5.
    rewrite (eqn_present n qa qa' d Hqa Ld), (eqn_present n qb qb' d Hqb Ld),
      (eqn_present n pa pa' d Ha Ld), (eqn_present n pb pb' d Hb Ld),
      (eqn_absent n pa pa' d Ha Ld), (eqn_absent n pb pb' d Hb Ld),
      (Ha d Ld), (Hb d Ld), (Hqa d Ld), (Hqb d Ld). reflexivity.
Qed.

(** * What an allowed observation shares with the model's result *)
Record obs_rel (p : op) (rm r : result) : Prop := {
  or_okv : okv r = okv rm;
  or_nil : is_nil (errs r) = is_nil (errs rm);
  or_errs : incl (errs r) (errs rm);
  or_c1 : incl (calls r) (calls rm);
  or_c2 : incl (calls rm) (calls r);
  or_bump : bump_op p = true -> calls r = calls rm
}.

Lemma obs_rel_refl p r : obs_rel p r r.
Proof. split; auto using incl_refl. Qed.

Lemma sel_sto st x : sel (sA st) (sB st) x = sto st x.
Proof. destruct x; reflexivity. Qed.

Lemma rget_nf_bool o r s d :
  rget o r s d = BErr NF r -> absent s d || (o r KGet d =? NF)%Z = true.
Proof.
  unfold rget. destruct (Z.eqb_spec (o r KGet d) 0) as [E|E].
  - unfold absent. destruct (lookup s d); [discriminate|reflexivity].
  - intros H. inversion H as [H1]. rewrite H1. apply Bool.orb_true_r.
Qed.

Lemma rget_answers_nf o r s d : rget o r s d = BErr NF r -> answers_nf o r s d = true.
Proof.
  unfold rget, answers_nf. destruct (Z.eqb_spec (o r KGet d) 0) as [E|E].
  - rewrite E. unfold absent. destruct (lookup s d); [discriminate|reflexivity].
  - intros H. inversion H as [H1]. rewrite H1. reflexivity.
Qed.

Lemma okr_model p rm r : obs_rel p rm r -> okr r = is_nil (errs rm).
Proof. intros Hrel. exact (or_nil _ _ _ Hrel). Qed.

Lemma first_called_model o st p st' rm r :
  step o st p = (st', rm) -> obs_rel p rm r ->
  bump_op p = true -> first_called (calls r) = firstR st.
Proof.
  intros Hstep Hrel B. rewrite (or_bump _ _ _ Hrel B).
  pose proof (step_rnd _ _ _ _ _ Hstep) as H. rewrite B in H. exact (proj2 H).
Qed.

Lemma fr1_model o st p st' rm r d x :
  step o st p = (st', rm) -> obs_rel p rm r ->
  fr1 o (sA st) (sB st) p r (sA st') (sB st') d x = true.
Proof.
  intros Hstep Hrel.
  unfold fr1. rewrite !sel_sto. destruct p as [d0|d0 v|l|]; cbn [step] in Hstep.
  - destruct (get_frame _ _ _ _ _ Hstep) as (Ho & Hf).
    pose proof (first_called_model _ _ (OGet d0) _ _ _ Hstep Hrel eq_refl) as FC.
    destruct (rid_eqb x (firstR st)) eqn:E.
    + assert (x = firstR st) by (revert E; destruct x, (firstR st); cbn; congruence). subst x.
      destruct (Hf d) as [Eq|(-> & _ & G & N & Eq)].
      * rewrite Eq, opt_eqb_refl. reflexivity.
      * rewrite Nat.eqb_refl, (rget_nf_bool _ _ _ _ G), FC, rid_eqb_refl.
        rewrite (proj2 (present_true _ _) N), (opt_eqb_of_eq _ _ Eq). apply Bool.orb_true_r.
    + assert (x = other (firstR st)) by (revert E; destruct x, (firstR st); cbn; congruence). subst x.
      rewrite Ho, opt_eqb_refl. reflexivity.
  - destruct (put_frame _ _ _ _ _ _ Hstep) as (_ & Hf).
    destruct (Hf x d) as [Eq|(-> & Eq & _)].
    + rewrite Eq, opt_eqb_refl. destruct (Nat.eqb d d0); reflexivity.
    + rewrite Nat.eqb_refl, (opt_eqb_of_eq _ _ Eq). apply Bool.orb_true_r.
  - destruct (fm_frame_proof _ _ _ _ _ Hstep) as (_ & Hf).
    destruct (Hf x d) as [Eq|(I & L & N & Eq)].
    + rewrite Eq, opt_eqb_refl. reflexivity.
    + fold (mem d l). rewrite (proj2 (mem_In d l) I), (proj2 (absent_true _ _) L),
        (proj2 (present_true _ _) N), (opt_eqb_of_eq _ _ Eq). apply Bool.orb_true_r.
  - unfold m_cap in Hstep. inversion Hstep; subst. rewrite sto_set_rnd. apply opt_eqb_refl.
Qed.

Lemma cl1_model n o st p st' rm r :
  step o st p = (st', rm) -> obs_rel p rm r ->
  cl1 n o (sA st) (sB st) p r (sA st') (sB st') = true.
Proof.
  intros Hstep Hrel.
  unfold cl1. apply forallb_forall. intros d _. cbn [forallb].
  rewrite !(fr1_model _ _ _ _ _ _ _ _ Hstep Hrel). reflexivity.
Qed.

(** clauses 7, 9 *)
Lemma cl7_model o st p st' rm r :
  step o st p = (st', rm) -> obs_rel p rm r -> cl7 o r = true.
Proof.
  intros Hstep Hrel.
  unfold cl7. rewrite (okr_model _ _ _ Hrel). destruct (errs rm) as [|e0 l0] eqn:E; [|reflexivity].
  cbn [is_nil negb orb]. apply forallb_forall. intros c Hc.
  destruct (errors_not_masked_proof _ _ _ _ _ Hstep) as (A & _ & _).
  destruct (A E c (or_c1 _ _ _ Hrel c Hc)) as [Z|[K Z]].
  - rewrite Z. reflexivity.
  - rewrite K, Z. apply Bool.orb_true_r.
Qed.

Lemma cl9_model o st p st' rm r :
  step o st p = (st', rm) -> obs_rel p rm r -> cl9 r = true.
Proof.
  intros Hstep Hrel.
  unfold cl9. apply forallb_forall. intros e He.
  destruct (errors_not_masked_proof _ _ _ _ _ Hstep) as (_ & _ & C).
  destruct (Z.eqb_spec (ecode e) NF) as [E|N]; [reflexivity|].
  pose proof (C e (or_errs _ _ _ Hrel e He) N) as T. cbn [orb].
  destruct (etag_of e); [contradiction| | |]; reflexivity.
Qed.

Lemma cl2_model o st d v st' rm r :
  step o st (OPut d v) = (st', rm) -> obs_rel (OPut d v) rm r ->
  cl2 r (sA st') (sB st') d v = true.
Proof.
  intros Hstep Hrel. unfold cl2. rewrite (okr_model _ _ _ Hrel).
  destruct (errs rm) as [|e0 l0] eqn:E; [|reflexivity]. cbn [step] in Hstep.
  destruct (put_ok_both_proof _ _ _ _ _ _ Hstep E) as [LA LB].
  rewrite LA, LB, opt_eqb_refl. reflexivity.
Qed.

Lemma cl3_model o st d st' rm r :
  step o st (OGet d) = (st', rm) -> obs_rel (OGet d) rm r ->
  cl3 (sA st) (sB st) r (sA st') (sB st') d = true.
Proof.
  intros Hstep Hrel. unfold cl3. rewrite (okr_model _ _ _ Hrel).
  destruct (errs rm) as [|e0 l0] eqn:E; [|reflexivity].
  rewrite (first_called_model _ _ _ _ _ _ Hstep Hrel eq_refl), (or_okv _ _ _ Hrel), sel_sto.
  cbn [step] in Hstep.
  destruct (get_ok_sound_proof _ _ _ _ _ Hstep E) as (x & -> & Hpre & Hpost).
  rewrite Hpost, opt_eqb_refl. cbn [is_nil negb orb]. rewrite Bool.andb_true_r.
  destruct Hpre as [L|[L _]]; destruct (firstR st); cbn [sto other] in L; rewrite L, opt_eqb_refl;
    [reflexivity|apply Bool.orb_true_r|apply Bool.orb_true_r|reflexivity].
Qed.

(** clause 4: only the four calls named by the clause need be fault-free *)
Lemma m_get_ext o o' st d :
  (forall x, o x KGet d = o' x KGet d) -> (forall x, o x KPut d = o' x KPut d) ->
  m_get o st d = m_get o' st d.
Proof. intros HG HP. unfold m_get, rget, rput. rewrite !HG, !HP. reflexivity. Qed.

Lemma cl4_model o st d st' rm r :
  step o st (OGet d) = (st', rm) -> obs_rel (OGet d) rm r ->
  cl4 o (sA st) (sB st) r d = true.
Proof.
  intros Hstep Hrel. unfold cl4. rewrite (okr_model _ _ _ Hrel).
  destruct (forallb _ _) eqn:F; [|reflexivity]. cbn [negb orb].
  cbn [forallb ocall] in F. rewrite !Bool.andb_true_iff, !Z.eqb_eq in F.
  destruct F as (F1 & F2 & F3 & F4 & _).
  cbn [step] in Hstep.
  rewrite (m_get_ext o (fun _ _ _ => 0%Z) st d) in Hstep.
  2:{ intros []; assumption. }
  2:{ intros []; assumption. }
  destruct (get_iff_either_proof _ _ _ _ _ (fun _ _ _ => eq_refl) Hstep) as (Hiff & _).
  unfold present, absent.
  destruct (errs rm) as [|e0 l0]; cbn [is_nil].
  - destruct (proj1 Hiff eq_refl) as [N|N].
    + destruct (lookup (sA st) d); [reflexivity|contradiction].
    + destruct (lookup (sB st) d); [|contradiction]. destruct (lookup (sA st) d); reflexivity.
  - destruct (lookup (sA st) d) eqn:LA.
    + exfalso. assert (C : e0 :: l0 = []) by (apply Hiff; left; discriminate). discriminate.
    + destruct (lookup (sB st) d) eqn:LB; [|reflexivity].
      exfalso. assert (C : e0 :: l0 = []) by (apply Hiff; right; discriminate). discriminate.
Qed.

Lemma cl5_model o st l st' rm r :
  step o st (OFM l) = (st', rm) -> obs_rel (OFM l) rm r ->
  cl5 (sA st) (sB st) r (sA st') (sB st') l = true.
Proof.
  intros Hstep Hrel. unfold cl5. rewrite (okr_model _ _ _ Hrel).
  destruct (errs rm) as [|e0 l0] eqn:E; [|reflexivity]. cbn [is_nil negb orb step] in *.
  destruct (fm_ok_proof _ _ _ _ _ Hstep E) as (Hv & Rep & _).
  destruct (fm_frame_proof _ _ _ _ _ Hstep) as [_ Fr].
  rewrite (or_okv _ _ _ Hrel), Hv, list_nat_eqb_refl. cbn [andb].
  apply forallb_forall. intros d Hd. apply (proj1 (dedup_sort_in _ _)) in Hd.
  pose proof (Rep RA d Hd) as RA'. pose proof (Rep RB d Hd) as RB'.
  pose proof (Fr RA d) as FA. pose proof (Fr RB d) as FB. cbn [sto other] in *.
  assert (QA : lookup (sA st') d = match lookup (sA st) d with Some a => Some a | None => lookup (sB st) d end).
  { destruct (lookup (sA st) d) as [a|] eqn:LA.
    - destruct FA as [Eq|(_ & C & _)]; [exact Eq|discriminate].
    - apply RA'. reflexivity. }
  assert (QB : lookup (sB st') d = match lookup (sB st) d with Some a => Some a | None => lookup (sA st) d end).
  { destruct (lookup (sB st) d) as [a|] eqn:LB.
    - destruct FB as [Eq|(_ & C & _)]; [exact Eq|discriminate].
    - apply RB'. reflexivity. }
  unfold fm5, present, absent. rewrite QA, QB.
  destruct (lookup (sA st) d), (lookup (sB st) d); cbn; rewrite ?Nat.eqb_refl; reflexivity.
Qed.

Lemma cl6_model o st l st' rm r :
  step o st (OFM l) = (st', rm) -> obs_rel (OFM l) rm r -> cl6 o r l = true.
Proof.
  intros Hstep Hrel. unfold cl6. rewrite (okr_model _ _ _ Hrel).
  destruct (forallb _ _) eqn:F; [|reflexivity]. cbn [negb orb].
  pose proof (proj1 (forallb_forall _ _) F) as Hc. cbn [step] in Hstep.
  rewrite (fm_unfaulted_ok o st l st' rm); [reflexivity| | | |exact Hstep].
  - apply Z.eqb_eq. apply (Hc (RA, KFM, 0)). left. reflexivity.
  - apply Z.eqb_eq. apply (Hc (RB, KFM, 0)). right. left. reflexivity.
  - intros d x I. apply (proj2 (dedup_sort_in _ _)) in I.
    assert (J : forall c, In c [(RA, KGet, d); (RB, KGet, d); (RA, KPut, d); (RB, KPut, d)] ->
                          ocall o c = 0%Z).
    { intros c Ic. apply Z.eqb_eq. apply Hc. apply in_or_app. right.
      apply in_flat_map. exists d. split; [exact I|exact Ic]. }
    destruct x; split.
    + apply (J (RA, KGet, d)). cbn; auto.
    + apply (J (RA, KPut, d)). cbn; auto.
    + apply (J (RB, KGet, d)). cbn; auto.
    + apply (J (RB, KPut, d)). cbn; auto.
Qed.

(** clause 8: NOT_FOUND is only ever the answer of a read to which both
    replicas answered NOT_FOUND, provided NOT_FOUND was not injected on one
    of the non-lookup calls the operation made (local form of
    [errors_not_masked_proof], which asks it of the whole oracle). *)
Lemma step_nf_local o st p st' r :
  step o st p = (st', r) -> wf_on o (calls r) = true ->
  forall e, In e (errs r) -> ecode e = NF -> exists d, p = OGet d /\ both_answer_nf o st d.
Proof.
  destruct p as [d|d x|ds|]; cbn [step]; intros H W e Ie En.
  - exists d. split; [reflexivity|]. revert H W e Ie En.
    unfold m_get. fold (firstR st). set (F := firstR st).
    assert (HF : forall P : rid -> Prop, P F -> P (other F) -> P RA /\ P RB).
    { intros P. destruct F; cbn; auto. }
    destruct (rget o F (sto st F) d) as [x|c og] eqn:G1.
    { intros H; inversion H; subst; cbn. intros _ e []. }
    destruct (rget_origin _ _ _ _ _ _ G1) as [-> C0].
    destruct (Z.eqb_spec c NF) as [->|N].
    2:{ intros H; inversion H; subst; cbn. intros _ e [<-|[]]. cbn. contradiction. }
    destruct (rget o (other F) (sto st (other F)) d) as [x|c2 og2] eqn:G2.
    + destruct (rput o F (sto st F) d (BData x)) as [s' [e|]] eqn:P.
      * intros H; inversion H; subst; cbn [errs calls]. intros W e0 [<-|[]]. rewrite sel_wrap_code. intros En.
        apply rput_fail in P. destruct P as [_ [(Po & _)|(_ & Pb)]]; [|discriminate].
        exfalso. apply (wf_on_in _ _ F KPut d W); [cbn; auto|discriminate|congruence].
      * intros H; inversion H; subst; cbn. intros _ e [].
    + destruct (rget_origin _ _ _ _ _ _ G2) as [-> C2].
      intros H; inversion H; subst; cbn [errs calls]. intros _ e [<-|[]]. rewrite sel_wrap_code. cbn [fst]. intros ->.
      apply (HF (fun y => rget o y (sto st y) d = BErr NF y)); assumption.
  - exfalso. revert H W e Ie En. unfold m_put.
    destruct (put_branch o RA d x st) as [st1 ea] eqn:B1.
    destruct (put_branch o RB d x st1) as [st2 eb] eqn:B2.
    intros H; inversion H; subst; clear H. cbn [errs calls].
    apply put_branch_spec in B1. apply put_branch_spec in B2.
    destruct B1 as (_ & _ & _ & _ & E1). destruct B2 as (_ & _ & _ & _ & E2).
    intros W e I En. apply in_app_or in I. destruct I as [I|I].
    + destruct (E1 e I) as (_ & Ec & _). apply (wf_on_in _ _ RA KPut d W); [cbn; auto|discriminate|congruence].
    + destruct (E2 e I) as (_ & Ec & _). apply (wf_on_in _ _ RB KPut d W); [cbn; auto|discriminate|congruence].
  - exfalso.
    destruct (m_fm_unfold _ _ _ _ _ H)
      as [(st1 & e1 & c1 & e2 & c2 & _ & _ & _ & _ & He & _)|(_ & _ & _ & Hc & Hall)].
    + rewrite He in Ie. apply in_app_or in Ie.
      destruct Ie as [I|I]; [destruct e1|destruct e2]; cbn in I; try contradiction;
        destruct I as [<-|[]]; exact (sync_wrap_code _ _ En).
    + destruct (Hall e Ie) as (y & _ & Ec & _). rewrite Hc in W.
      apply (wf_on_in _ _ y KFM 0 W); [destruct y; cbn; auto|discriminate|congruence].
  - exfalso. unfold m_cap in H. inversion H; subst; clear H. cbn [errs calls] in *.
    destruct (Z.eqb_spec (o (first_of (S (rnd st))) KCap 0) 0) as [E|N]; [contradiction|].
    destruct Ie as [<-|[]]. cbn [ecode] in En.
    apply (wf_on_in _ _ (first_of (S (rnd st))) KCap 0 W); [cbn; auto|discriminate|exact En].
Qed.

Lemma cl8_model o st p st' rm r :
  step o st p = (st', rm) -> obs_rel p rm r -> cl8 o (sA st) (sB st) p r = true.
Proof.
  intros Hstep Hrel. unfold cl8. apply forallb_forall. intros e He.
  destruct (Z.eqb_spec (ecode e) NF) as [En|N]; [|reflexivity]. cbn [negb orb].
  destruct (wf_on o (calls r)) eqn:W; [|reflexivity]. cbn [negb orb].
  assert (Wm : wf_on o (calls rm) = true).
  { unfold wf_on in *. exact (forallb_incl _ _ _ (or_c2 _ _ _ Hrel) W). }
  destruct (step_nf_local _ _ _ _ _ Hstep Wm e (or_errs _ _ _ Hrel e He) En) as (d & -> & GA & GB).
  rewrite (rget_answers_nf _ _ _ _ GA), (rget_answers_nf _ _ _ _ GB). reflexivity.
Qed.

Theorem check_op_model n o st p st' rm r :
  step o st p = (st', rm) -> obs_rel p rm r ->
  check_op n o (sA st) (sB st) p r (sA st') (sB st') = [].
Proof.
  intros Hstep Hrel. rewrite check_op_eq.
  rewrite (flag_true _ 1 (cl1_model n _ _ _ _ _ _ Hstep Hrel)),
    (flag_true _ 7 (cl7_model _ _ _ _ _ _ Hstep Hrel)),
    (flag_true _ 8 (cl8_model _ _ _ _ _ _ Hstep Hrel)),
    (flag_true _ 9 (cl9_model _ _ _ _ _ _ Hstep Hrel)).
  destruct p as [d|d v|l|].
  - rewrite (flag_true _ 3 (cl3_model _ _ _ _ _ _ Hstep Hrel)),
      (flag_true _ 4 (cl4_model _ _ _ _ _ _ Hstep Hrel)). reflexivity.
  - rewrite (flag_true _ 2 (cl2_model _ _ _ _ _ _ _ Hstep Hrel)). reflexivity.
  - rewrite (flag_true _ 5 (cl5_model _ _ _ _ _ _ Hstep Hrel)),
      (flag_true _ 6 (cl6_model _ _ _ _ _ _ Hstep Hrel)). reflexivity.
  - reflexivity.
Qed.

Theorem check_alt_model o st p st' rm r :
  step o st p = (st', rm) -> obs_rel p rm r -> check_alt (rnd st) p r = [].
Proof.
  intros Hstep Hrel. unfold check_alt. destruct (bump_op p) eqn:B; [|reflexivity].
  rewrite (first_called_model _ _ _ _ _ _ Hstep Hrel B). unfold firstR.
  rewrite rid_eqb_refl. reflexivity.
Qed.

Lemma step_rnd_next o st p st' rm :
  step o st p = (st', rm) -> rnd st' = if bump_op p then S (rnd st) else rnd st.
Proof.
  intros H. pose proof (step_rnd _ _ _ _ _ H) as R. destruct (bump_op p); [exact (proj1 R)|exact R].
Qed.

Lemma repl_multi_calls o src dst : forall l st st' e cs,
  repl_multi o src dst st l = (st', e, cs) -> forall c, In c cs -> In (snd c) l.
Proof.
  induction l as [|d t IH]; intros st st' e cs; cbn [repl_multi].
  - intros H; inversion H; subst. intros c [].
  - destruct (rput o dst (sto st dst) d (rget o src (sto st src) d)) as [s' [pe|]].
    + intros H; inversion H; subst. intros c [<-|[<-|[]]]; left; reflexivity.
    + destruct (repl_multi o src dst (set_sto st dst s') t) as [[st1 e1] cs1] eqn:R.
      intros H; inversion H; subst. intros c [<-|[<-|I]]; [left; reflexivity|left; reflexivity|].
      right. exact (IH _ _ _ _ R c I).
Qed.

(** The replica calls of the two-goroutine operations mention only digest 0
    (existence checks) and the digests of the operation. *)
Lemma step_calls_digests o st p st' rm :
  step o st p = (st', rm) -> bump_op p = false ->
  forall c, In c (calls rm) -> snd c = 0 \/ In (snd c) (op_digests p).
Proof.
  destruct p as [d|d x|ds|]; cbn [step bump_op op_digests]; intros H B; try discriminate.
  - unfold m_put in H.
    destruct (put_branch o RA d x st) as [st1 ea]. destruct (put_branch o RB d x st1) as [st2 eb].
    inversion H; subst. cbn [calls]. intros c [<-|[<-|[]]]; right; left; reflexivity.
  - destruct (m_fm_unfold _ _ _ _ _ H)
      as [(st1 & e1 & c1 & e2 & c2 & _ & _ & R1 & R2 & _ & _ & Hc)|(_ & _ & _ & Hc & _)];
      rewrite Hc; cbn [app].
    + intros c [<-|[<-|I]]; [left; reflexivity|left; reflexivity|]. right.
      apply in_app_or in I. destruct I as [I|I];
        [apply (repl_multi_calls _ _ _ _ _ _ _ _ R1) in I|apply (repl_multi_calls _ _ _ _ _ _ _ _ R2) in I];
        apply in_only in I; destruct I as (I & _); apply (proj1 (dedup_sort_in _ _)) in I; exact I.
    + intros c [<-|[<-|[]]]; left; reflexivity.
Qed.
