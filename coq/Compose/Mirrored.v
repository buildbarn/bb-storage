(** C11 — model of pkg/blobstore/mirrored/mirrored_blob_access.go over two
    replicas, with the read path of replication/with_blob_replicator.go and
    the local replicator (replication/local_blob_replicator.go).
    Definitions only.

    Replicas are abstract maps (digest id -> content id).  Every call on a
    replica is answered under an environment-chosen [oracle]: 0 = the natural
    answer for the replica's contents (a lookup of an absent object answers
    NOT_FOUND), c <> 0 = the call fails with gRPC code c (c = 5 is an injected
    NOT_FOUND: the replica claims not to hold the object, e.g. because it lost
    it between two calls).  Within one mirrored operation every (replica,
    kind, digest) call happens at most once, so the oracle is keyed by that
    triple; a history supplies a fresh oracle per operation. *)
From BBS Require Import Common.Sx Common.ListX.

Inductive rid := RA | RB.
Inductive kind := KGet | KPut | KFM | KCap.
Definition call := (rid * kind * nat)%type.
Definition oracle := rid -> kind -> nat -> Z.

Definition other (r : rid) : rid := match r with RA => RB | RB => RA end.
Definition rid_eqb (a b : rid) : bool :=
  match a, b with RA, RA | RB, RB => true | _, _ => false end.
Definition kind_eqb (a b : kind) : bool :=
  match a, b with KGet, KGet | KPut, KPut | KFM, KFM | KCap, KCap => true | _, _ => false end.

Definition NF : Z := 5.        (* codes.NotFound *)
Definition INTERNAL : Z := 13. (* codes.Internal *)

(** * Replicas *)
Definition store := list (nat * nat).
Fixpoint lookup (s : store) (d : nat) : option nat :=
  match s with
  | [] => None
  | (k, v) :: t => if Nat.eqb k d then Some v else lookup t d
  end.
Definition upd (s : store) (d x : nat) : store := (d, x) :: s.
Definition absent (s : store) (d : nat) : bool :=
  match lookup s d with None => true | Some _ => false end.

(** What a replica's [Get] hands back: a buffer that yields the content, or
    an error buffer (code, replica whose answer it is). *)
Inductive bufr := BData (x : nat) | BErr (c : Z) (og : rid).

Definition rget (o : oracle) (r : rid) (s : store) (d : nat) : bufr :=
  let c := o r KGet d in
  if c =? 0 then match lookup s d with Some x => BData x | None => BErr NF r end
  else BErr c r.

(** [Put]: a replica that fails does so before consuming the buffer; one that
    does not fail stores the content, or returns the buffer's own error. *)
Definition rput (o : oracle) (r : rid) (s : store) (d : nat) (b : bufr)
  : store * option (Z * rid) :=
  let c := o r KPut d in
  if c =? 0 then match b with BData x => (upd s d x, None) | BErr e og => (s, Some (e, og)) end
  else (s, Some (c, r)).

Definition rfm (o : oracle) (r : rid) (s : store) (ds : list nat) : (Z * rid) + list nat :=
  let c := o r KFM 0%nat in
  if c =? 0 then inr (filter (absent s) ds) else inl (c, r).

(** * Errors as the caller sees them: code, which replica the message names
    (and how), and whose answer it carries. *)
Inductive etag :=
| TNone                (* no replica named: both answered NOT_FOUND *)
| TBackend (r : rid)   (* "Backend A: ..." *)
| TSync (from : rid)   (* "Failed to synchronize from backend A to backend B: ..." *)
| TIncons (r : rid).   (* "Backend A returned inconsistent results while synchronizing: ..." *)
Record err := mkerr { ecode : Z; etag_of : etag; eorigin : rid }.

Record result := mkres {
  okv : list nat;       (* Get: [content]; FindMissing: missing digests; else [] *)
  errs : list err;      (* [] = success; several = any one of them (errgroup) *)
  calls : list call     (* replica calls made *)
}.

Record mstate := mkst { sA : store; sB : store; rnd : nat }.
Definition sto (st : mstate) (r : rid) : store := match r with RA => sA st | RB => sB st end.
Definition set_sto (st : mstate) (r : rid) (s : store) : mstate :=
  match r with RA => mkst s (sB st) (rnd st) | RB => mkst (sA st) s (rnd st) end.
Definition set_rnd (st : mstate) (n : nat) : mstate := mkst (sA st) (sB st) n.

(** [ba.round.Add(1)%2 == 1] selects A.  (The counter is a uint32; 2^32 is
    even, so wrap-around preserves the parity of the mathematical count.) *)
Definition first_of (n : nat) : rid := if Nat.odd n then RA else RB.

(** The selector of [getBlobReplicatorSelector]: an error other than
    NOT_FOUND gets the name of the backend whose stage produced it; a
    NOT_FOUND on the second stage is returned in original form. *)
Definition sel_wrap (name : rid) (e : Z * rid) : err :=
  if fst e =? NF then mkerr NF TNone (snd e) else mkerr (fst e) (TBackend name) (snd e).

(** * Get: first replica, then once the replicator other->first
    ([ReplicateSingle]: read source, clone, put sink in a task, stream). *)
Definition m_get (o : oracle) (st : mstate) (d : nat) : mstate * result :=
  let n := S (rnd st) in
  let F := first_of n in
  let S' := other F in
  let st1 := set_rnd st n in
  match rget o F (sto st F) d with
  | BData x => (st1, mkres [x] [] [(F, KGet, d)])
  | BErr c og =>
      if c =? NF then
        match rget o S' (sto st S') d with
        | BErr c2 og2 =>
            (* errorBuffer.WithTask runs sink.Put(error buffer) in the
               foreground and discards its outcome *)
            (st1, mkres [] [sel_wrap S' (c2, og2)] [(F, KGet, d); (S', KGet, d); (F, KPut, d)])
        | BData x =>
            match rput o F (sto st F) d (BData x) with
            | (s', None) =>
                (set_sto st1 F s', mkres [x] [] [(F, KGet, d); (S', KGet, d); (F, KPut, d)])
            | (_, Some e) =>
                (* "Replication failed" comes back through the same selector,
                   which by now names the second backend *)
                (st1, mkres [] [sel_wrap S' e] [(F, KGet, d); (S', KGet, d); (F, KPut, d)])
            end
        end
      else (st1, mkres [] [mkerr c (TBackend F) og] [(F, KGet, d)])
  end.

(** * Put: both replicas, each branch touching its own replica only. *)
Definition put_branch (o : oracle) (r : rid) (d x : nat) (st : mstate) : mstate * list err :=
  match rput o r (sto st r) d (BData x) with
  | (s', None) => (set_sto st r s', [])
  | (s', Some e) => (set_sto st r s', [mkerr (fst e) (TBackend r) (snd e)])
  end.

Definition m_put (o : oracle) (st : mstate) (d x : nat) : mstate * result :=
  let '(st1, ea) := put_branch o RA d x st in
  let '(st2, eb) := put_branch o RB d x st1 in
  (st2, mkres [] (ea ++ eb) [(RA, KPut, d); (RB, KPut, d)]).

(** * FindMissing *)

(** [digest.GetDifferenceAndIntersection]: a merge of two sorted lists. *)
Fixpoint diff_inter (a b : list nat) : list nat * list nat * list nat :=
  match a with
  | [] => ([], [], b)
  | x :: a' =>
      (fix go (b : list nat) : list nat * list nat * list nat :=
         match b with
         | [] => (a, [], [])
         | y :: b' =>
             if Nat.ltb x y then
               let '(oa, bo, ob) := diff_inter a' b in (x :: oa, bo, ob)
             else if Nat.eqb x y then
               let '(oa, bo, ob) := diff_inter a' b' in (oa, x :: bo, ob)
             else
               let '(oa, bo, ob) := go b' in (oa, bo, y :: ob)
         end) b
  end.

(** [localBlobReplicator.ReplicateMultiple]: for each digest in set order,
    [sink.Put(d, source.Get(d))]; stops at the first error. *)
Fixpoint repl_multi (o : oracle) (src dst : rid) (st : mstate) (ds : list nat)
  : mstate * option (Z * rid) * list call :=
  match ds with
  | [] => (st, None, [])
  | d :: t =>
      let b := rget o src (sto st src) d in
      match rput o dst (sto st dst) d b with
      | (s', None) =>
          let '(st', e, cs) := repl_multi o src dst (set_sto st dst s') t in
          (st', e, (src, KGet, d) :: (dst, KPut, d) :: cs)
      | (_, Some e) => (st, Some e, [(src, KGet, d); (dst, KPut, d)])
      end
  end.

Definition sync_wrap (src : rid) (e : Z * rid) : err :=
  if fst e =? NF then mkerr INTERNAL (TIncons src) (snd e) else mkerr (fst e) (TSync src) (snd e).

Definition opt_list {T} (o : option T) : list T := match o with None => [] | Some x => [x] end.
Definition fm_err (r : rid) (x : (Z * rid) + list nat) : list err :=
  match x with inl e => [mkerr (fst e) (TBackend r) (snd e)] | inr _ => [] end.
Definition is_nil {T} (l : list T) : bool := match l with [] => true | _ => false end.

Definition m_fm (o : oracle) (st : mstate) (ds0 : list nat) : mstate * result :=
  let ds := dedup_sort ds0 in
  let cs := [(RA, KFM, 0%nat); (RB, KFM, 0%nat)] in
  match rfm o RA (sA st) ds, rfm o RB (sB st) ds with
  | inr ma, inr mb =>
      let '(mfA, both, mfB) := diff_inter ma mb in
      (* the two replications run concurrently on disjoint digests; the model
         runs A->B first *)
      let '(st1, e1, c1) := repl_multi o RA RB st mfB in
      let '(st2, e2, c2) := repl_multi o RB RA st1 mfA in
      let es := opt_list (option_map (sync_wrap RA) e1) ++ opt_list (option_map (sync_wrap RB) e2) in
      (st2, mkres (if is_nil es then both else []) es (cs ++ c1 ++ c2))
  | ra, rb => (st, mkres [] (fm_err RA ra ++ fm_err RB rb) cs)
  end.

(** * GetCapabilities: alternates too, one replica only. *)
Definition m_cap (o : oracle) (st : mstate) : mstate * result :=
  let n := S (rnd st) in
  let F := first_of n in
  let c := o F KCap 0%nat in
  (set_rnd st n, mkres [] (if c =? 0 then [] else [mkerr c (TBackend F) F]) [(F, KCap, 0%nat)]).

(** * Histories *)
Inductive op := OGet (d : nat) | OPut (d x : nat) | OFM (ds : list nat) | OCap.

Definition step (o : oracle) (st : mstate) (p : op) : mstate * result :=
  match p with
  | OGet d => m_get o st d
  | OPut d x => m_put o st d x
  | OFM ds => m_fm o st ds
  | OCap => m_cap o st
  end.

Fixpoint run (st : mstate) (h : list (oracle * op)) : mstate * list result :=
  match h with
  | [] => (st, [])
  | (o, p) :: t =>
      let '(st1, r) := step o st p in
      let '(st2, rs) := run st1 t in
      (st2, r :: rs)
  end.

Definition no_faults (o : oracle) : Prop := forall r k d, o r k d = 0.
(** An oracle is well-formed when NOT_FOUND is only ever the answer of a
    lookup (uploads, existence checks and capability calls fail with other
    codes). *)
Definition wf_oracle (o : oracle) : Prop := forall r k d, k <> KGet -> o r k d <> NF.

(** * The property as a decidable check on one observed operation
    (the monitor; it does not use [m_get]/[m_put]/[m_fm]).  [n] bounds the
    digest ids looked at; [pa pb]/[qa qb] are the replica contents before and
    after; [r] is the observed result ([errs r] has at most one element). *)
Definition bump_op (p : op) : bool := match p with OFM _ | OPut _ _ => false | _ => true end.
Definition opt_eqb (a b : option nat) : bool :=
  match a, b with
  | None, None => true
  | Some x, Some y => Nat.eqb x y
  | _, _ => false
  end.
Definition present (s : store) (d : nat) : bool := negb (absent s d).
Fixpoint list_nat_eqb (a b : list nat) : bool :=
  match a, b with
  | [], [] => true
  | x :: a', y :: b' => Nat.eqb x y && list_nat_eqb a' b'
  | _, _ => false
  end.
Definition call_eqb (a b : call) : bool :=
  let '(r1, k1, d1) := a in let '(r2, k2, d2) := b in
  rid_eqb r1 r2 && kind_eqb k1 k2 && Nat.eqb d1 d2.
Definition ocall (o : oracle) (c : call) : Z := let '(r, k, d) := c in o r k d.
Definition first_called (cs : list call) : rid :=
  match cs with (r, _, _) :: _ => r | [] => RA end.
Definition answers_nf (o : oracle) (r : rid) (s : store) (d : nat) : bool :=
  (o r KGet d =? NF) || ((o r KGet d =? 0) && absent s d).
Definition tag_names (t : etag) : bool := match t with TNone => false | _ => true end.
Definition wf_on (o : oracle) (cs : list call) : bool :=
  forallb (fun c => let '(r, k, d) := c in kind_eqb k KGet || negb (o r k d =? NF)) cs.

Definition flag (b : bool) (id : Z) : list Z := if b then [] else [id].

Definition check_op (n : nat) (o : oracle) (pa pb : store) (p : op) (r : result) (qa qb : store)
  : list Z :=
  let ok := is_nil (errs r) in
  let ds := seq 0 n in
  let pre x := match x with RA => pa | RB => pb end in
  let post x := match x with RA => qa | RB => qb end in
  (* 1: nothing is lost or altered except by an upload of that object; an
        object appears in a replica only through an upload, or as a copy of
        what the other replica held (read repair: in the first-consulted one,
        which lacked it or answered NOT_FOUND; existence check: requested
        objects) *)
  flag (forallb (fun d => forallb (fun x =>
          match p with
          | OPut d' v => if Nat.eqb d d' then opt_eqb (lookup (post x) d) (lookup (pre x) d)
                                             || opt_eqb (lookup (post x) d) (Some v)
                         else opt_eqb (lookup (post x) d) (lookup (pre x) d)
          | OGet d' => opt_eqb (lookup (post x) d) (lookup (pre x) d)
                       || (Nat.eqb d d' && (absent (pre x) d || (o x KGet d =? NF))
                           && rid_eqb x (first_called (calls r))
                           && present (pre (other x)) d
                           && opt_eqb (lookup (post x) d) (lookup (pre (other x)) d))
          | OFM l => opt_eqb (lookup (post x) d) (lookup (pre x) d)
                     || (existsb (Nat.eqb d) l && absent (pre x) d && present (pre (other x)) d
                         && opt_eqb (lookup (post x) d) (lookup (pre (other x)) d))
          | OCap => opt_eqb (lookup (post x) d) (lookup (pre x) d)
          end) [RA; RB]) ds) 1 ++
  match p with
  | OPut d v =>
      (* 2: a successful upload is present in both replicas *)
      flag (negb ok || (opt_eqb (lookup qa d) (Some v) && opt_eqb (lookup qb d) (Some v))) 2
  | OGet d =>
      let F := first_called (calls r) in
      (* 3: a successful read returns what a replica held, and afterwards the
            first-consulted replica holds it *)
      flag (negb ok || match okv r with
                       | [v] => (opt_eqb (lookup pa d) (Some v) || opt_eqb (lookup pb d) (Some v))
                                && opt_eqb (lookup (post F) d) (Some v)
                       | _ => false
                       end) 3 ++
      (* 4: absent faults, the read succeeds iff at least one replica holds it *)
      flag (negb (forallb (fun c => ocall o c =? 0) [(RA, KGet, d); (RB, KGet, d); (RA, KPut, d); (RB, KPut, d)])
            || Bool.eqb ok (present pa d || present pb d)) 4
  | OFM l =>
      let l' := dedup_sort l in
      (* 5: a successful existence check reports exactly the objects both
            lack, and has copied every requested object held by one to the other *)
      flag (negb ok ||
            (list_nat_eqb (okv r) (filter (fun d => absent pa d && absent pb d) l')
             && forallb (fun d => Bool.eqb (present qa d) (present qb d)
                                  && (absent pa d || opt_eqb (lookup qa d) (lookup pa d))
                                  && (absent pb d || opt_eqb (lookup qb d) (lookup pb d))
                                  && (present pa d || absent pb d || opt_eqb (lookup qa d) (lookup pb d))
                                  && (present pb d || absent pa d || opt_eqb (lookup qb d) (lookup pa d))) l')) 5 ++
      (* 6: absent faults it succeeds *)
      flag (negb (forallb (fun c => ocall o c =? 0)
                    ([(RA, KFM, 0%nat); (RB, KFM, 0%nat)] ++
                     flat_map (fun d => [(RA, KGet, d); (RB, KGet, d); (RA, KPut, d); (RB, KPut, d)]) l'))
            || ok) 6
  | OCap => []
  end ++
  (* 7: success only if no call made was answered with a failure (an
        answer NOT_FOUND to a lookup is not a failure) *)
  flag (negb ok || forallb (fun c => (ocall o c =? 0)
                                      || (kind_eqb (snd (fst c)) KGet && (ocall o c =? NF))) (calls r)) 7 ++
  (* 8: NOT_FOUND is reported only by a read to which both replicas answered
        NOT_FOUND (for well-formed oracles) *)
  flag (forallb (fun e => negb (ecode e =? NF) || negb (wf_on o (calls r))
                          || match p with
                             | OGet d => answers_nf o RA pa d && answers_nf o RB pb d
                             | _ => false
                             end) (errs r)) 8 ++
  (* 9: every other error names a replica *)
  flag (forallb (fun e => (ecode e =? NF) || tag_names (etag_of e)) (errs r)) 9.

(** History-level clause 10: the replica consulted first alternates, starting
    with A ([k] = number of alternating operations so far). *)
Definition check_alt (k : nat) (p : op) (r : result) : list Z :=
  if bump_op p then flag (rid_eqb (first_called (calls r)) (first_of (S k))) 10 else [].
