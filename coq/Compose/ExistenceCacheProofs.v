(** C17: theorems about the LRU set and the existence cache, facts about
    strictly sorted lists, and the facts about panics and the cache size that
    the monitor proofs of Run/R17Proofs.v use. *)
From Coq Require Import List ZArith NArith Bool Arith Lia Permutation.
From BBS Require Import Common.ListX Compose.ExistenceCache.
Import ListNotations.

Lemma memn_in d s : memn d s = true <-> In d s.
Proof.
  unfold memn. rewrite existsb_exists. split.
  - intros (x & Hin & He). apply Nat.eqb_eq in He. subst. exact Hin.
  - intros H. exists d. split; [exact H|apply Nat.eqb_refl].
Qed.

Lemma lookup_remove_key k k' m t : lookup k (remove_key k' m) = Some t -> lookup k m = Some t.
Proof.
  induction m as [|[a b] r IH]; cbn; [auto|].
  destruct (Nat.eqb k' a) eqn:E1.
  - intros H. specialize (IH H). destruct (Nat.eqb k a) eqn:E2; [|exact IH].
    apply Nat.eqb_eq in E1, E2. subst.
    clear -H. exfalso. induction r as [|[a' b'] r IH]; cbn in H; [discriminate|].
    destruct (Nat.eqb a a') eqn:E; [auto|]. cbn in H. rewrite E in H. auto.
  - cbn. destruct (Nat.eqb k a); auto.
Qed.

Lemma lookup_set_time k k' t m t0 : lookup k (set_time k' t m) = Some t0 ->
  (k = k' /\ t0 = t) \/ lookup k m = Some t0.
Proof.
  unfold set_time. cbn. destruct (Nat.eqb k k') eqn:E.
  - intros H. inversion H. apply Nat.eqb_eq in E. auto.
  - intros H. right. eapply lookup_remove_key. exact H.
Qed.

(** Every insertion time in the cache is the time of some recording. *)
Definition times_in (recs : list (nat * N)) (e : ec) : Prop :=
  forall k t0, lookup k (times e) = Some t0 -> In (k, t0) recs.

Lemma ec_evict_times_in recs e : times_in recs e -> times_in recs (ec_evict e).
Proof.
  unfold ec_evict, times_in. intros H k t0. destruct (lru_peek (elru e)); cbn; [|apply H].
  intros L. apply H. eapply lookup_remove_key. exact L.
Qed.

Lemma ec_add_times_in size now ds : forall recs e, times_in recs e ->
  times_in (map (fun d => (d, now)) ds ++ recs) (ec_add size now ds e).
Proof.
  induction ds as [|d r IH]; intros recs e H; cbn [ec_add map app]; [exact H|].
  set (e1 := if Nat.leb size (length (times e)) then ec_evict e else e).
  assert (H1 : times_in recs e1) by (unfold e1; destruct (Nat.leb _ _); [apply ec_evict_times_in|]; exact H).
  set (e2 := match lookup d (times e1) with
             | Some t0 => if (t0 <? now)%N then mkec (set_time d now (times e1)) (elru e1) else e1
             | None => mkec (set_time d now (times e1)) (lru_insert d (elru e1))
             end).
  assert (H2 : times_in ((d, now) :: recs) e2).
  { assert (Hs : forall l, times_in ((d, now) :: recs) (mkec (set_time d now (times e1)) l)).
    { intros l k t0 L. cbn [times] in L. apply lookup_set_time in L. destruct L as [[-> ->]|L]; [left; reflexivity|right; apply H1; exact L]. }
    unfold e2. destruct (lookup d (times e1)); [destruct (_ <? _)%N|]; try apply Hs.
    intros k t0 L. right. apply H1. exact L. }
  specialize (IH _ _ H2). intros k t0 L. specialize (IH k t0 L).
  apply in_app_or in IH. destruct IH as [I|[I|I]].
  - right. apply in_or_app. left. exact I.
  - left. exact I.
  - right. apply in_or_app. right. exact I.
Qed.

Definition hit (dur now : N) (d : nat) (e : ec) : bool :=
  match lookup d (times e) with Some t0 => fresh dur now t0 | None => false end.

Lemma ec_remove_existing_cons dur now d r e :
  ec_remove_existing dur now (d :: r) e =
  if hit dur now d e then ec_remove_existing dur now r (mkec (times e) (lru_touch d (elru e)))
  else let (m, e') := ec_remove_existing dur now r e in (d :: m, e').
Proof.
  unfold hit. cbn [ec_remove_existing]. destruct (lookup d (times e)) as [t0|]; [destruct (fresh dur now t0)|]; reflexivity.
Qed.

Lemma hit_fresh dur now d e : hit dur now d e = true -> exists t0, lookup d (times e) = Some t0 /\ fresh dur now t0 = true.
Proof. unfold hit. destruct (lookup d (times e)) as [t0|]; [|discriminate]. intros F. exists t0. auto. Qed.

Lemma ec_remove_existing_spec dur now ds : forall e m e', ec_remove_existing dur now ds e = (m, e') ->
  times e' = times e /\
  (forall d, In d m -> In d ds) /\
  (forall d, In d ds -> ~ In d m -> exists t0, lookup d (times e) = Some t0 /\ fresh dur now t0 = true).
Proof.
  induction ds as [|d r IH]; intros e m e' H.
  - inversion H; subst. repeat split; auto. intros d [].
  - rewrite ec_remove_existing_cons in H. destruct (hit dur now d e) eqn:Hd.
    + apply IH in H. cbn [times] in H. destruct H as (T & Sub & J). split; [exact T|]. split.
      * intros x Hx. right. apply Sub. exact Hx.
      * intros x [->|Hx] Hn; [apply hit_fresh; exact Hd|apply J; assumption].
    + destruct (ec_remove_existing dur now r e) as [m0 e0] eqn:R. inversion H; subst.
      apply IH in R. destruct R as (T & Sub & J). split; [exact T|]. split.
      * intros x [->|Hx]; [left; reflexivity|right; apply Sub; exact Hx].
      * intros x [->|Hx] Hn; [contradiction Hn; left; reflexivity|].
        apply J; [exact Hx|]. intros Hm. apply Hn. right. exact Hm.
Qed.

(** The recordings of "present" a step makes: (digest, clock reading at the
    recording).  For the decorator these are exactly the digests the backend
    has just answered to be present. *)
Definition step_recs (dur : N) (o : eop) (s : est) : list (nat * N) :=
  match o with
  | EFm ds d1 d2 fault =>
      if negb (Z.eqb fault 0) then [] else
      let t1 := (now s + d1)%N in
      let mm := fst (ec_remove_existing dur t1 (dedup_sort ds) (cache s)) in
      map (fun d => (d, (t1 + d2)%N)) (filter (fun d => memn d (backend s)) mm)
  | EAdd ds d1 => map (fun d => (d, (now s + d1)%N)) (dedup_sort ds)
  | _ => []
  end.

Definition justified_by (dur : N) (recs : list (nat * N)) (t : N) (d : nat) : Prop :=
  exists t0, In (d, t0) recs /\ (t0 <= t)%N /\ (t <= t0 + dur)%N.

(** What soundness demands of one observed step, given the recordings made
    before it: whatever was answered from the cache (requested, but not passed
    on to the backend / not returned by RemoveExisting) is justified. *)
Definition step_sound (dur : N) (o : eop) (ob : eobs) (recs : list (nat * N)) : Prop :=
  match o with
  | EFm ds _ _ _ =>
      forall d asked, In d (dedup_sort ds) -> e_call ob = Some asked -> ~ In d asked ->
                      justified_by dur recs (hd 0%N (e_clock ob)) d
  | ERemoveExisting ds _ =>
      forall d, In d (dedup_sort ds) -> ~ In d (e_ans ob) -> justified_by dur recs (hd 0%N (e_clock ob)) d
  | _ => True
  end.

Fixpoint sound_hist (size : nat) (dur : N) (ops : list eop) (s : est) (recs : list (nat * N)) : Prop :=
  match ops with
  | [] => True
  | o :: r =>
      step_sound dur o (fst (estep size dur o s)) recs /\
      sound_hist size dur r (snd (estep size dur o s)) (step_recs dur o s ++ recs)
  end.

Definition einv (recs : list (nat * N)) (s : est) : Prop :=
  times_in recs (cache s) /\ forall k t0, In (k, t0) recs -> (t0 <= now s)%N.

Lemma hit_justified dur recs s t d t0 : einv recs s -> (now s <= t)%N ->
  lookup d (times (cache s)) = Some t0 -> fresh dur t t0 = true -> justified_by dur recs t d.
Proof.
  intros [Ht Hn] Hle L F. exists t0. split; [apply Ht; exact L|]. unfold fresh in F. apply N.leb_le in F.
  split; [|exact F]. specialize (Hn _ _ (Ht _ _ L)). lia.
Qed.

Lemma estep_inv size dur o s recs : einv recs s ->
  einv (step_recs dur o s ++ recs) (snd (estep size dur o s)) /\ step_sound dur o (fst (estep size dur o s)) recs.
Proof.
  intros Ei. pose proof Ei as [Ht Hn]. destruct o as [ds d1 d2 fault|ds d1|ds d1|d|d|d fault]; cbn [estep step_recs step_sound].
  - destruct (ec_remove_existing dur (now s + d1) (dedup_sort ds) (cache s)) as [mm c1] eqn:R.
    pose proof (ec_remove_existing_spec _ _ _ _ _ _ R) as (T & Sub & J).
    assert (Hsound : forall d asked, In d (dedup_sort ds) -> Some mm = Some asked -> ~ In d asked ->
                     justified_by dur recs (now s + d1)%N d).
    { intros d asked Hd Ha Hn'. inversion Ha; subst asked. destruct (J d Hd Hn') as (t0 & L & F).
      apply (hit_justified dur recs s _ d t0 Ei); [lia|exact L|exact F]. }
    assert (Ht1 : times_in recs c1) by (intros k t0 L; apply Ht; rewrite <- T; exact L).
    destruct (Z.eqb fault 0); cbn [negb fst snd e_call e_clock hd app].
    + split; [|exact Hsound]. split; cbn [cache now].
      * apply ec_add_times_in with (size := size) (now := (now s + d1 + d2)%N) (ds := filter (fun d => memn d (backend s)) mm) in Ht1.
        intros k t0 L. specialize (Ht1 k t0 L). cbn [fst]. exact Ht1.
      * intros k t0 I. apply in_app_or in I. destruct I as [I|I].
        -- apply in_map_iff in I. destruct I as (x & E & _). inversion E. lia.
        -- specialize (Hn _ _ I). lia.
    + split; [|exact Hsound]. split; cbn [cache now]; [exact Ht1|].
      intros k t0 I. specialize (Hn _ _ I). lia.
  - destruct (ec_remove_existing dur (now s + d1) (dedup_sort ds) (cache s)) as [mm c1] eqn:R.
    pose proof (ec_remove_existing_spec _ _ _ _ _ _ R) as (T & Sub & J).
    cbn [fst snd e_ans e_clock hd app]. split.
    + split; cbn [cache now].
      * intros k t0 L. apply Ht. rewrite <- T. exact L.
      * intros k t0 I. specialize (Hn _ _ I). lia.
    + intros d Hd Hn'. destruct (J d Hd Hn') as (t0 & L & F).
      apply (hit_justified dur recs s _ d t0 Ei); [lia|exact L|exact F].
  - cbn [fst snd]. split; [|exact I]. split; cbn [cache now].
    + apply ec_add_times_in. exact Ht.
    + intros k t0 I. apply in_app_or in I. destruct I as [I|I].
      * apply in_map_iff in I. destruct I as (x & E & _). inversion E. lia.
      * specialize (Hn _ _ I). lia.
  - cbn [fst snd app]. split; [|exact I]. split; assumption.
  - cbn [fst snd app]. split; [|exact I]. split; assumption.
  - cbn [fst snd app]. split; [|exact I]. split; assumption.
Qed.

Lemma sound_hist_inv size dur ops : forall s recs, einv recs s -> sound_hist size dur ops s recs.
Proof.
  induction ops as [|o r IH]; intros s recs H; cbn [sound_hist]; [exact I|].
  destruct (estep_inv size dur o s recs H) as [H1 H2]. split; [exact H2|]. apply IH. exact H1.
Qed.

Theorem ec_sound size dur ops : sound_hist size dur ops (mkest ec_empty 0%N []) [].
Proof.
  apply sound_hist_inv. split.
  - intros k t0 L. cbn in L. discriminate.
  - intros k t0 [].
Qed.

(** The decorator passes the backend's answer through unchanged. *)
Theorem efm_transparent size dur ds d1 d2 s :
  let ob := fst (estep size dur (EFm ds d1 d2 0%Z) s) in
  exists asked, e_call ob = Some asked /\ e_code ob = 0%Z /\
                e_ans ob = filter (fun d => negb (memn d (backend s))) asked.
Proof.
  cbn [estep]. destruct (ec_remove_existing dur (now s + d1) (dedup_sort ds) (cache s)) as [mm c1].
  cbn. exists mm. auto.
Qed.

Lemma remove_nat_in x d l : In x (remove_nat d l) <-> x <> d /\ In x l.
Proof.
  induction l as [|h t IH]; cbn; [tauto|].
  destruct (Nat.eqb d h) eqn:E.
  - apply Nat.eqb_eq in E. subst. rewrite IH. intuition congruence.
  - apply Nat.eqb_neq in E. cbn. rewrite IH. intuition congruence.
Qed.

Lemma remove_nat_notin d l : ~ In d l -> remove_nat d l = l.
Proof.
  induction l as [|h t IH]; cbn; [auto|]. intros H. destruct (Nat.eqb d h) eqn:E.
  - apply Nat.eqb_eq in E. subst. contradiction H. left. reflexivity.
  - rewrite IH; [reflexivity|]. intros X. apply H. right. exact X.
Qed.

Lemma remove_nat_nodup d l : NoDup l -> NoDup (remove_nat d l).
Proof.
  induction 1 as [|h t Hn Hd IH]; cbn; [constructor|].
  destruct (Nat.eqb d h); [exact IH|]. constructor; [|exact IH].
  rewrite remove_nat_in. tauto.
Qed.

Definition lru_ok (s : lru) : Prop := NoDup (lq s) /\ lpanic s = false.

(** Touching or inserting an element makes it the last to be evicted and
    keeps the relative order of all other elements. *)
Theorem lru_touch_spec v s : lru_ok s -> In v (lq s) ->
  lru_ok (lru_touch v s) /\ lq (lru_touch v s) = remove_nat v (lq s) ++ [v].
Proof.
  intros [Hn Hp] Hin. unfold lru_touch. apply memn_in in Hin. rewrite Hin. cbn. split; [|reflexivity].
  split; [|exact Hp].
  apply Permutation.Permutation_NoDup with (l := v :: remove_nat v (lq s)).
  - apply Permutation.Permutation_cons_append.
  - constructor; [rewrite remove_nat_in; tauto|apply remove_nat_nodup; exact Hn].
Qed.

Theorem lru_insert_spec v s : lru_ok s -> ~ In v (lq s) ->
  lru_ok (lru_insert v s) /\ lq (lru_insert v s) = lq s ++ [v].
Proof.
  intros [Hn Hp] Hin. unfold lru_insert. destruct (memn v (lq s)) eqn:M.
  - apply memn_in in M. contradiction.
  - cbn. split; [|reflexivity]. split; [|exact Hp].
    apply Permutation.Permutation_NoDup with (l := v :: lq s).
    + apply Permutation.Permutation_cons_append.
    + constructor; assumption.
Qed.

(** Peek/Remove take the head: the element whose last Insert/Touch is oldest. *)
Theorem lru_remove_spec s v r : lru_ok s -> lq s = v :: r ->
  lru_peek s = Some v /\ lru_ok (lru_remove s) /\ lq (lru_remove s) = r.
Proof.
  intros [Hn Hp] E. unfold lru_peek, lru_remove. rewrite E. cbn. split; [reflexivity|]. split; [|reflexivity].
  split; [|exact Hp]. rewrite E in Hn. inversion Hn. assumption.
Qed.

(** * Size bound and panic-freedom of the existence cache (cache size >= 1) *)
Definition keys (m : list (nat * N)) : list nat := map fst m.

Lemma keys_remove_key x k m : In x (keys (remove_key k m)) <-> x <> k /\ In x (keys m).
Proof.
  unfold keys. induction m as [|[a b] r IH]; cbn; [tauto|].
  destruct (Nat.eqb k a) eqn:E.
  - apply Nat.eqb_eq in E. subst. rewrite IH. intuition congruence.
  - apply Nat.eqb_neq in E. cbn. rewrite IH. intuition congruence.
Qed.

Lemma keys_remove_key_nodup k m : NoDup (keys m) -> NoDup (keys (remove_key k m)).
Proof.
  unfold keys. induction m as [|[a b] r IH]; cbn; [auto|]. intros H. inversion H; subst.
  destruct (Nat.eqb k a); [auto|]. cbn. constructor; [|auto].
  intros X. apply (keys_remove_key a k r) in X. tauto.
Qed.

Lemma lookup_keys k m : lookup k m <> None <-> In k (keys m).
Proof.
  unfold keys. induction m as [|[a b] r IH]; cbn; [tauto|].
  destruct (Nat.eqb k a) eqn:E.
  - apply Nat.eqb_eq in E. subst. split; [auto|discriminate].
  - apply Nat.eqb_neq in E. rewrite IH. intuition congruence.
Qed.

Record ecinv (e : ec) : Prop := mkecinv {
  ei_q : NoDup (lq (elru e));
  ei_p : lpanic (elru e) = false;
  ei_k : NoDup (keys (times e));
  ei_same : forall k, In k (lq (elru e)) <-> In k (keys (times e)) }.

Lemma ecinv_length e : ecinv e -> length (times e) = length (lq (elru e)).
Proof.
  intros [Q P K S]. unfold keys in *. rewrite <- (map_length fst (times e)).
  apply Permutation_length. apply NoDup_Permutation; [exact K|exact Q|]. intros x. symmetry. apply S.
Qed.

Lemma ecinv_empty : ecinv ec_empty.
Proof. constructor; cbn; try constructor; tauto. Qed.

Lemma ec_remove_existing_inv dur now ds : forall e, ecinv e -> ecinv (snd (ec_remove_existing dur now ds e)).
Proof.
  induction ds as [|d r IH]; intros e I; [exact I|].
  rewrite ec_remove_existing_cons. destruct (hit dur now d e) eqn:Hd.
  - apply IH. destruct (hit_fresh _ _ _ _ Hd) as (t0 & L & _). destruct I as [Q P K S].
    assert (Hin : In d (lq (elru e))) by (apply S, lookup_keys; rewrite L; discriminate).
    destruct (lru_touch_spec d (elru e) (conj Q P) Hin) as [[Q' P'] E].
    constructor; cbn [elru times]; try assumption.
    intros k. rewrite E, in_app_iff, remove_nat_in, <- S. cbn.
    destruct (Nat.eq_dec k d) as [->|N]; intuition congruence.
  - specialize (IH e I). destruct (ec_remove_existing dur now r e). exact IH.
Qed.

Lemma ec_evict_inv e : ecinv e -> times e <> [] ->
  ecinv (ec_evict e) /\ S (length (times (ec_evict e))) = length (times e).
Proof.
  intros I Hne. pose proof (ecinv_length e I) as Hl. destruct I as [Q P K S0].
  assert (OK : lru_ok (elru e)) by (split; assumption).
  unfold ec_evict. destruct (lq (elru e)) as [|k r] eqn:E.
  - exfalso. destruct (times e); [contradiction|discriminate].
  - destruct (lru_remove_spec (elru e) k r OK E) as (Pk & [Q' P'] & Er). rewrite Pk.
    assert (I' : ecinv (mkec (remove_key k (times e)) (lru_remove (elru e)))).
    { constructor; cbn [elru times]; try assumption.
      - apply keys_remove_key_nodup. exact K.
      - intros x. rewrite Er, keys_remove_key, <- S0. cbn. inversion Q; subst.
        split; [intros H; split; [intros ->; contradiction|right; exact H]|intros [N [H|H]]; [congruence|exact H]]. }
    split; [exact I'|]. rewrite (ecinv_length _ I'). cbn [elru]. rewrite Er, Hl. reflexivity.
Qed.

Lemma length_remove_key d m : (length (remove_key d m) <= length m)%nat.
Proof. induction m as [|[a b] m IHm]; cbn; [lia|]. destruct (Nat.eqb d a); cbn; lia. Qed.

Lemma ec_add_inv size now ds : (1 <= size)%nat -> forall e, ecinv e -> (length (times e) <= size)%nat ->
  ecinv (ec_add size now ds e) /\ (length (times (ec_add size now ds e)) <= size)%nat.
Proof.
  intros Hs. induction ds as [|d r IH]; intros e I Hl; cbn [ec_add]; [auto|].
  set (e1 := if Nat.leb size (length (times e)) then ec_evict e else e).
  assert (H1 : ecinv e1 /\ (length (times e1) < size)%nat).
  { unfold e1. destruct (Nat.leb size (length (times e))) eqn:E.
    - apply Nat.leb_le in E.
      assert (Hne : times e <> []) by (destruct (times e); [cbn in E; lia|discriminate]).
      destruct (ec_evict_inv e I Hne) as [I' L']. split; [exact I'|lia].
    - apply Nat.leb_gt in E. auto. }
  destruct H1 as [I1 L1]. pose proof I1 as [Q P K S0].
  assert (Kset : NoDup (keys (set_time d now (times e1)))).
  { unfold set_time. cbn. constructor; [intros X; apply (keys_remove_key d d (times e1)) in X; tauto|apply keys_remove_key_nodup; exact K]. }
  destruct (lookup d (times e1)) as [t0|] eqn:L.
  - assert (Hd : In d (keys (times e1))) by (apply lookup_keys; rewrite L; discriminate).
    assert (Hlen : length (set_time d now (times e1)) = length (times e1)).
    { assert (P1 : Permutation (keys (set_time d now (times e1))) (keys (times e1))).
      { apply NoDup_Permutation; [exact Kset|exact K|].
        intros x. unfold set_time. cbn. fold (keys (remove_key d (times e1))). rewrite keys_remove_key.
        destruct (Nat.eq_dec x d) as [->|N]; intuition congruence. }
      apply Permutation_length in P1. unfold keys in P1. rewrite !map_length in P1. exact P1. }
    destruct (t0 <? now)%N; apply IH; try exact I1; try lia.
    + constructor; cbn [elru times]; try assumption.
      intros k. rewrite S0. unfold set_time. cbn. fold (keys (remove_key d (times e1))). rewrite keys_remove_key.
      destruct (Nat.eq_dec k d) as [->|N]; intuition congruence.
    + cbn [times]. lia.
  - assert (Hnd : ~ In d (keys (times e1))) by (intros X; apply lookup_keys in X; apply X; exact L).
    assert (Hq : ~ In d (lq (elru e1))) by (rewrite S0; exact Hnd).
    destruct (lru_insert_spec d (elru e1) (conj Q P) Hq) as [[Q' P'] E].
    apply IH.
    + constructor; cbn [elru times]; try assumption.
      intros k. rewrite E, in_app_iff, S0. unfold set_time. cbn. fold (keys (remove_key d (times e1))). rewrite keys_remove_key.
      destruct (Nat.eq_dec k d) as [->|N]; intuition congruence.
    + cbn [times set_time length]. pose proof (length_remove_key d (times e1)). lia.
Qed.

Lemma erun_cache_inv (P : ec -> Prop) size dur :
  (forall t ds e, P e -> P (snd (ec_remove_existing dur t ds e))) ->
  (forall t ds e, P e -> P (ec_add size t ds e)) ->
  forall ops s, P (cache s) -> P (cache (snd (erun size dur ops s))).
Proof.
  intros Hr Ha. induction ops as [|o r IH]; intros s H; cbn [erun]; [exact H|].
  assert (H1 : P (cache (snd (estep size dur o s)))).
  { destruct o as [ds d1 d2 fault|ds d1|ds d1|d|d|d fault]; cbn [estep]; try exact H.
    - specialize (Hr (now s + d1)%N (dedup_sort ds) (cache s) H).
      destruct (ec_remove_existing dur (now s + d1) (dedup_sort ds) (cache s)) as [mm c1].
      destruct (negb (Z.eqb fault 0)); cbn [snd cache]; [exact Hr|apply Ha, Hr].
    - specialize (Hr (now s + d1)%N (dedup_sort ds) (cache s) H).
      destruct (ec_remove_existing dur (now s + d1) (dedup_sort ds) (cache s)) as [mm c1]. exact Hr.
    - apply Ha, H. }
  destruct (estep size dur o s) as [ob s1]. specialize (IH s1 H1). destruct (erun size dur r s1). exact IH.
Qed.

(** With a cache size of at least 1 the cache never holds more than [size]
    entries, never touches an empty queue, and the queue holds exactly the
    cached keys - through any sequence of RemoveExisting / Add calls. *)
Theorem ec_bounded size dur ops : (1 <= size)%nat ->
  forall s, ecinv (cache s) -> (length (times (cache s)) <= size)%nat ->
  let s' := snd (erun size dur ops s) in
  ecinv (cache s') /\ (length (times (cache s')) <= size)%nat.
Proof.
  intros Hs s I L. apply (erun_cache_inv (fun e => ecinv e /\ (length (times e) <= size)%nat) size dur); [| |auto].
  - intros t ds e [I1 L1]. split; [apply ec_remove_existing_inv, I1|].
    destruct (ec_remove_existing dur t ds e) as [mm c1] eqn:R.
    destruct (ec_remove_existing_spec _ _ _ _ _ _ R) as (T & _). cbn [snd]. rewrite T. exact L1.
  - intros t ds e [I1 L1]. apply ec_add_inv; assumption.
Qed.

Theorem ec_no_panic size dur ops : (1 <= size)%nat ->
  lpanic (elru (cache (snd (erun size dur ops (mkest ec_empty 0%N []))))) = false.
Proof.
  intros Hs. destruct (ec_bounded size dur ops Hs (mkest ec_empty 0%N []) ecinv_empty) as [I _]; [cbn; lia|].
  apply (ei_p _ I).
Qed.

(** A composite read (GetFromComposite) through the decorator is the
    backend's: the child iff the backend holds the parent, the backend is asked
    for exactly that parent, the cache is neither consulted (no clock reading)
    nor changed - in every state, hence after every history. *)
Theorem egfc_transparent size dur p s :
  let (ob, s') := estep size dur (EGfc p 0%Z) s in
  e_code ob = (if memn p (backend s) then 0 else 5)%Z /\ e_call ob = Some [p] /\ e_clock ob = [] /\ s' = s.
Proof. cbn. repeat split; reflexivity. Qed.

Theorem egfc_failure_surfaces size dur p f s : f <> 0%Z -> e_code (fst (estep size dur (EGfc p f) s)) = f.
Proof. intros H. cbn. apply Z.eqb_neq in H. rewrite H. reflexivity. Qed.

(** * Facts the monitor proofs of Run/R17Proofs.v need.

    - a Go panic (the [lpanic] flag) is sticky through every operation;
    - the number of digests answered from the cache never exceeds the number
      of cached entries, and that never exceeds the configured size - for size
      >= 1 by [ec_bounded], and for size 0 because then every non-empty Add
      panics, so a run that ends unpanicked never cached anything. *)
Lemma lru_insert_panic v s : lpanic s = true -> lpanic (lru_insert v s) = true.
Proof. intros H. unfold lru_insert. destruct (memn v (lq s)); [reflexivity|exact H]. Qed.
Lemma lru_touch_panic v s : lpanic s = true -> lpanic (lru_touch v s) = true.
Proof. intros H. unfold lru_touch. destruct (memn v (lq s)); [exact H|reflexivity]. Qed.
Lemma lru_remove_panic s : lpanic s = true -> lpanic (lru_remove s) = true.
Proof. intros H. unfold lru_remove. destruct (lq s); [reflexivity|exact H]. Qed.

Lemma lru_run_panic ops : forall s, lpanic s = true -> lpanic (snd (lru_run ops s)) = true.
Proof.
  induction ops as [|[v|v| |] r IH]; intros s H; cbn [lru_run]; [exact H| | | |].
  - apply IH, lru_insert_panic, H.
  - apply IH, lru_touch_panic, H.
  - specialize (IH s H). destruct (lru_run r s). exact IH.
  - apply IH, lru_remove_panic, H.
Qed.

Lemma ec_remove_existing_panic dur now ds : forall e, lpanic (elru e) = true ->
  lpanic (elru (snd (ec_remove_existing dur now ds e))) = true.
Proof.
  induction ds as [|d r IH]; intros e H; [exact H|].
  rewrite ec_remove_existing_cons. destruct (hit dur now d e).
  - apply IH. cbn [elru]. apply lru_touch_panic, H.
  - specialize (IH e H). destruct (ec_remove_existing dur now r e). exact IH.
Qed.

Lemma ec_evict_panic e : lpanic (elru e) = true -> lpanic (elru (ec_evict e)) = true.
Proof. intros H. unfold ec_evict. destruct (lru_peek (elru e)); cbn [elru]; apply lru_remove_panic, H. Qed.

Lemma ec_add_panic size now ds : forall e, lpanic (elru e) = true -> lpanic (elru (ec_add size now ds e)) = true.
Proof.
  induction ds as [|d r IH]; intros e H; cbn [ec_add]; [exact H|]. apply IH.
  set (e1 := if Nat.leb size (length (times e)) then ec_evict e else e).
  assert (H1 : lpanic (elru e1) = true) by (unfold e1; destruct (Nat.leb _ _); [apply ec_evict_panic|]; exact H).
  destruct (lookup d (times e1)); [destruct (_ <? _)%N|]; cbn [elru]; try exact H1. apply lru_insert_panic, H1.
Qed.

Lemma erun_panic size dur ops : forall s, lpanic (elru (cache s)) = true ->
  lpanic (elru (cache (snd (erun size dur ops s)))) = true.
Proof.
  apply (erun_cache_inv (fun e => lpanic (elru e) = true)).
  - intros t ds e. apply ec_remove_existing_panic.
  - intros t ds e. apply ec_add_panic.
Qed.

Lemma ss_head_lt x l : strictly_sorted (x :: l) -> forall y, In y l -> x < y.
Proof.
  revert x. induction l as [|h t IH]; intros x H y Hy; [destruct Hy|].
  inversion H as [| |a b l' Hab Hs]; subst. destruct Hy as [<-|Hy]; [exact Hab|].
  specialize (IH h Hs y Hy). lia.
Qed.

Lemma ss_nodup l : strictly_sorted l -> NoDup l.
Proof.
  induction l as [|x l IH]; intros H; constructor.
  - intros Hin. pose proof (ss_head_lt x l H x Hin). lia.
  - apply IH. inversion H; subst; [constructor|assumption].
Qed.

Lemma dedup_sort_nodup l : NoDup (dedup_sort l).
Proof. apply ss_nodup, dedup_sort_sorted. Qed.

(** Consequently no answer names more cached digests than the cache holds
    entries:
    the digests a RemoveExisting call leaves out are distinct cached keys. *)
Lemma cached_bound dur t ds e mm c1 : ec_remove_existing dur t ds e = (mm, c1) -> NoDup ds ->
  length (filter (fun d => negb (memn d mm)) ds) <= length (times e).
Proof.
  intros R Hn. destruct (ec_remove_existing_spec _ _ _ _ _ _ R) as (_ & _ & J).
  rewrite <- (map_length fst (times e)). apply NoDup_incl_length; [apply NoDup_filter; exact Hn|].
  intros d Hd. apply filter_In in Hd. destruct Hd as [Hd Hm]. apply negb_true_iff in Hm.
  destruct (J d Hd) as (t0 & L & _).
  - intros X. apply memn_in in X. rewrite X in Hm. discriminate.
  - apply (lookup_keys d (times e)). rewrite L. discriminate.
Qed.

(** * The cache never holds more than [size] entries along a history *)
Fixpoint small_hist (size : nat) (dur : N) (ops : list eop) (s : est) : Prop :=
  match ops with
  | [] => True
  | o :: r => length (times (cache s)) <= size /\ small_hist size dur r (snd (estep size dur o s))
  end.

Lemma small_hist_pos size dur : 1 <= size -> forall ops s, ecinv (cache s) -> length (times (cache s)) <= size ->
  small_hist size dur ops s.
Proof.
  intros Hs. induction ops as [|o r IH]; intros s I B; cbn [small_hist]; [exact Logic.I|].
  split; [exact B|]. pose proof (ec_bounded size dur [o] Hs s I B) as E. cbn [erun] in E.
  destruct (estep size dur o s) as [ob s1]. cbn [snd] in *. destruct E as [I1 B1]. apply IH; assumption.
Qed.

Lemma ec_remove_existing_empty dur t ds : forall e, times e = [] -> ec_remove_existing dur t ds e = (ds, e).
Proof.
  induction ds as [|d r IH]; intros e H; cbn [ec_remove_existing]; [reflexivity|].
  rewrite H. cbn [lookup]. rewrite (IH e H). reflexivity.
Qed.

Lemma ec_add_zero_panics t ds e : times e = [] -> lq (elru e) = [] -> ds <> [] ->
  lpanic (elru (ec_add 0 t ds e)) = true.
Proof.
  intros Ht Hq Hd. destruct ds as [|d r]; [contradiction|]. cbn [ec_add Nat.leb]. apply ec_add_panic.
  assert (P : lpanic (elru (ec_evict e)) = true).
  { unfold ec_evict, lru_peek. rewrite Hq. cbn [elru]. unfold lru_remove. rewrite Hq. reflexivity. }
  destruct (lookup d (times (ec_evict e))); [destruct (_ <? _)%N|]; cbn [elru]; try exact P. apply lru_insert_panic, P.
Qed.

Lemma small_hist_zero dur : forall ops s, times (cache s) = [] -> lq (elru (cache s)) = [] ->
  lpanic (elru (cache (snd (erun 0 dur ops s)))) = false -> small_hist 0 dur ops s.
Proof.
  induction ops as [|o r IH]; intros s Ht Hq Hp; cbn [small_hist]; [exact I|].
  split; [rewrite Ht; apply Nat.le_refl|].
  cbn [erun] in Hp. destruct (estep 0 dur o s) as [ob s1] eqn:E. cbn [snd].
  destruct (erun 0 dur r s1) as [obs s2] eqn:R. cbn [snd] in Hp.
  assert (Hp1 : lpanic (elru (cache (snd (erun 0 dur r s1)))) = false) by (rewrite R; exact Hp).
  assert (Hnp : lpanic (elru (cache s1)) = false).
  { destruct (lpanic (elru (cache s1))) eqn:P; [|reflexivity].
    rewrite (erun_panic 0 dur r s1 P) in Hp1. discriminate. }
  assert (Hadd : forall t ds, s1 = mkest (ec_add 0 t ds (cache s)) (now s1) (backend s1) -> ds = []).
  { intros t ds Hs1. destruct ds as [|d ds']; [reflexivity|]. exfalso.
    assert (X : lpanic (elru (cache s1)) = true).
    { rewrite Hs1. cbn [cache]. apply ec_add_zero_panics; [exact Ht|exact Hq|discriminate]. }
    rewrite X in Hnp. discriminate. }
  assert (Hsame : cache s1 = cache s -> small_hist 0 dur r s1).
  { intros C. apply IH; [rewrite C; exact Ht|rewrite C; exact Hq|exact Hp1]. }
  destruct o as [ds d1 d2 fault|ds d1|ds d1|d|d|d fault]; cbn [estep] in E.
  - rewrite (ec_remove_existing_empty _ _ _ _ Ht) in E.
    destruct (negb (Z.eqb fault 0)); inversion E; subst; clear E; [apply Hsame; reflexivity|].
    apply Hsame. cbn [cache]. rewrite (Hadd _ _ eq_refl). reflexivity.
  - rewrite (ec_remove_existing_empty _ _ _ _ Ht) in E. inversion E; subst. apply Hsame. reflexivity.
  - inversion E; subst; clear E. apply Hsame. cbn [cache]. rewrite (Hadd _ _ eq_refl). reflexivity.
  - inversion E; subst. apply Hsame. reflexivity.
  - inversion E; subst. apply Hsame. reflexivity.
  - inversion E; subst. apply Hsame. reflexivity.
Qed.

Theorem small_hist_from_empty size dur ops :
  lpanic (elru (cache (snd (erun size dur ops (mkest ec_empty 0%N []))))) = false ->
  small_hist size dur ops (mkest ec_empty 0%N []).
Proof.
  intros Hp. destruct size as [|n].
  - apply small_hist_zero; [reflexivity|reflexivity|exact Hp].
  - apply small_hist_pos; [lia|apply ecinv_empty|cbn; lia].
Qed.
