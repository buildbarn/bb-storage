(** C17, sequential composites seen through the recorded calls of a step.

    The monitor of Run/R17.v decides "no backend call failed" from the faults
    recorded in the calls of one step ([lg]), whereas the completeness theorems
    of Compose/CachingProofs.v assume that no fault is left to inject
    ([fl s = []]).  This file bridges the two: an operation whose recorded
    calls all carry fault 0 behaves exactly as on the state with the fault
    list erased ([strip]), whatever faults were left unconsumed.  It also
    extends [cfm_fallback_total] from the local replicator to every
    replicator stack (code only).

    The second half ([hard], [sees], [surf], [one_call]) shows that a recorded
    backend failure other than NOT_FOUND makes Get and GetFromComposite end
    with an error ([cget_hard_fault_surfaces], [cgfc_hard_fault_surfaces]). *)
From Coq Require Import List ZArith Bool Arith Lia.
From BBS Require Import Compose.Caching Compose.CachingProofs.
Import ListNotations.
Open Scope Z_scope.

Definition unfaulted (l : list call) : bool := forallb (fun c => c_fault c =? 0) l.
Definition strip (s : st) : st := mkst (sa s) (sb s) [] (lg s).

Lemma unfaulted_app l1 l2 : unfaulted (l1 ++ l2) = unfaulted l1 && unfaulted l2.
Proof. apply forallb_app. Qed.

(** [X] extends the log, and if the extended log is unfaulted, [X] commutes with [strip]. *)
Definition sim {R} (X : st -> R * st) : Prop :=
  forall s c s1, X s = (c, s1) ->
    (exists l, lg s1 = l ++ lg s) /\ (unfaulted (lg s1) = true -> X (strip s) = (c, strip s1)).

(** [sim] is closed under sequencing. *)
Lemma sim_bind {A B} (X : st -> A * st) (K : A -> st -> B * st) :
  sim X -> (forall a, sim (K a)) -> sim (fun s => let (a, s1) := X s in K a s1).
Proof.
  intros HX HK s c s2 H. cbn beta in H. destruct (X s) as [a s1] eqn:E.
  destruct (HX _ _ _ E) as [[l1 H1] Xs]. destruct (HK a _ _ _ H) as [[l2 H2] Ks].
  split; [exists (l2 ++ l1); rewrite H2, H1; apply app_assoc|].
  intros U. rewrite Xs; [apply Ks, U|].
  rewrite H2, unfaulted_app in U. apply andb_prop in U. apply U.
Qed.

Lemma sim_pure {R} (g : st -> R) : (forall s, g (strip s) = g s) -> sim (fun s => (g s, s)).
Proof.
  intros Hg s c s1 H. inversion H; subst. split; [exists []; reflexivity|]. intros _. rewrite Hg. reflexivity.
Qed.

Lemma sim_ret {R} (c : R) : sim (fun s => (c, s)).
Proof. apply (sim_pure (fun _ => c)). reflexivity. Qed.

Lemma sim_record b o args : sim (record b o args).
Proof.
  intros s c s1 H. unfold record in H. destruct (fl s) as [|f r] eqn:E; inversion H; subst; clear H; cbn [lg].
  - split; [exists [mkcall b o args 0]; reflexivity|]. intros _. unfold record, strip. cbn. reflexivity.
  - split; [exists [mkcall b o args c]; reflexivity|]. intros U. cbn in U. apply andb_prop in U. destruct U as [U _].
    apply Z.eqb_eq in U. subst c. unfold record, strip. cbn. reflexivity.
Qed.

Lemma contents_strip b s : contents b (strip s) = contents b s.
Proof. destruct b; reflexivity. Qed.

Lemma sim_bread o b d : sim (bread o b d).
Proof.
  unfold bread. apply sim_bind; [apply sim_record|]. intros f. destruct (f =? 0); [|apply sim_ret].
  apply (sim_pure (fun s1 => if memb d (contents b s1) then 0 else 5)). intros s. rewrite contents_strip. reflexivity.
Qed.

Lemma sim_bfm b ds : sim (bfm b ds).
Proof.
  unfold bfm. apply sim_bind; [apply sim_record|]. intros f. destruct (f =? 0); [|apply (sim_ret (f, []))].
  apply (sim_pure (fun s1 => (0, filter (fun d => negb (memb d (contents b s1))) ds))).
  intros s. rewrite contents_strip. reflexivity.
Qed.

Lemma sim_bput b d buf : sim (bput b d buf).
Proof.
  unfold bput. apply sim_bind; [apply sim_record|]. intros f.
  destruct (negb (f =? 0)); [apply sim_ret|]. destruct (negb (buf =? 0)); [apply sim_ret|].
  intros s c s1 H. inversion H; subst. split; [exists []; destruct b; reflexivity|].
  intros _. rewrite contents_strip. destruct b; reflexivity.
Qed.

Lemma sim_local_multiple ds : sim (local_multiple ds).
Proof.
  induction ds as [|d r IH]; cbn [local_multiple]; [apply sim_ret|].
  apply sim_bind; [apply (sim_bread CGet)|]. intros b. apply sim_bind; [apply sim_bput|]. intros c.
  destruct (c =? 0); [exact IH|apply sim_ret].
Qed.

Lemma sim_local_single d : sim (local_single d).
Proof.
  unfold local_single. apply sim_bind; [apply (sim_bread CGet)|]. intros b. apply sim_bind; [apply sim_bput|]. intros c.
  destruct (b =? 0); apply sim_ret.
Qed.

Lemma sim_rmultiple r : forall ds, sim (rmultiple r ds).
Proof.
  induction r as [| |r IH|r IH]; intros ds; cbn [rmultiple].
  - apply sim_local_multiple.
  - apply sim_ret.
  - induction ds as [|d rest IHd]; [apply sim_ret|].
    apply sim_bind; [apply sim_bfm|]. intros [c0 miss]. destruct (negb (c0 =? 0)); [apply sim_ret|].
    destruct miss; [exact IHd|]. apply sim_bind; [apply IH|]. intros c2. destruct (c2 =? 0); [exact IHd|apply sim_ret].
  - apply IH.
Qed.

Lemma sim_deco o r d : sim (deco o r d).
Proof.
  unfold deco. apply sim_bind; [apply sim_rmultiple|]. intros c. destruct (c =? 0); [|apply sim_ret].
  unfold sink_nf. apply sim_bind; [apply sim_bread|]. intros b. apply sim_ret.
Qed.

Lemma sim_rsingle r d : sim (rsingle r d).
Proof.
  destruct r; [apply sim_local_single|apply (sim_bread CGet)|apply (sim_deco CGet)|apply (sim_deco CGet)].
Qed.

Lemma sim_rcomposite r d : sim (rcomposite r d).
Proof.
  destruct r; [apply (sim_deco CGfc)|apply (sim_bread CGfc)|apply (sim_deco CGfc)|apply (sim_deco CGfc)].
Qed.

Lemma sim_cread o X d : sim (X d) -> sim (cread o X d).
Proof.
  intros HX. unfold cread. apply sim_bind; [apply sim_bread|]. intros b. destruct (b =? 5); [exact HX|apply sim_ret].
Qed.

Lemma sim_cget r d : sim (cget r d).
Proof. exact (sim_cread CGet _ d (sim_rsingle r d)). Qed.

Lemma sim_cgfc r p : sim (cgfc r p).
Proof. exact (sim_cread CGfc _ p (sim_rcomposite r p)). Qed.

(** Get: if no recorded call of the step failed, the result is the one of the
    completeness theorem, whatever faults were left. *)
Theorem cget_complete_unfaulted r d s c s1 : (copying r = true \/ r = RNoop) ->
  cget r d s = (c, s1) -> unfaulted (lg s1) = true ->
  c = if memb d (sa s) || memb d (sb s) then 0 else 5.
Proof.
  intros Hr H U. destruct (sim_cget _ _ _ _ _ H) as [_ Hs]. specialize (Hs U).
  pose proof (cget_complete_copying r d (strip s) Hr eq_refl) as C. rewrite Hs in C. exact C.
Qed.

(** FindMissing through a fallback answers whenever no call fails, for every
    replicator stack ([cfm_fallback_total_any]). *)
Lemma rmultiple_total r : forall ds s c s1, fl s = [] -> (forall d, In d ds -> memb d (sb s) = true) ->
  rmultiple r ds s = (c, s1) -> c = 0 /\ fl s1 = [].
Proof.
  induction r as [| |r IH|r IH]; intros ds s c s1 Hf Hin H; cbn [rmultiple] in H.
  - apply local_multiple_spec in H. destruct H as (_ & _ & Lf). destruct (Lf Hf) as [Hf1 Hall]. split; auto.
  - inversion H; subst. split; auto.
  - revert s c s1 Hf Hin H. induction ds as [|d rest IHd]; intros s c s1 Hf Hin H.
    + inversion H; subst. split; auto.
    + destruct (bfm BA [d] s) as [[c0 miss] s0] eqn:F. apply bfm_spec in F.
      destruct F as (Fa & Fb & _ & Ff). destruct (Ff Hf) as [Hf0 ->]. cbn [Z.eqb negb] in H.
      destruct miss as [|x miss'].
      * apply (IHd s0); [exact Hf0|intros y Hy; rewrite Fb; apply Hin; right; exact Hy|exact H].
      * destruct (rmultiple r [d] s0) as [c2 s2] eqn:R. pose proof (rmultiple_grows _ _ _ _ _ R) as (Gb & _).
        destruct (IH [d] s0 c2 s2 Hf0) as [-> Hf2]; [intros y [<-|[]]; rewrite Fb; apply Hin; left; reflexivity|exact R|].
        cbn [Z.eqb] in H. apply (IHd s2); [exact Hf2|intros y Hy; rewrite Gb, Fb; apply Hin; right; exact Hy|exact H].
  - eapply IH; eassumption.
Qed.

Lemma cfm_fallback_total_any r ds s : fl s = [] -> fst (fst (cfm ReadFallback r ds s)) = 0.
Proof.
  intros Hf. cbn [cfm]. destruct (bfm BA ds s) as [[c1 m1] s0] eqn:F1. apply bfm_spec in F1.
  destruct F1 as (F1a & F1b & F10 & F1f). destruct (F1f Hf) as [Hf0 ->]. specialize (F10 eq_refl). cbn [contents] in F10.
  cbn [Z.eqb negb]. destruct (bfm BB m1 s0) as [[c2 m2] s2] eqn:F2. apply bfm_spec in F2.
  destruct F2 as (F2a & F2b & F20 & F2f). destruct (F2f Hf0) as [Hf2 ->]. specialize (F20 eq_refl). cbn [contents] in F20.
  cbn [Z.eqb negb].
  destruct (rmultiple r _ s2) as [c3 s3] eqn:RM.
  assert (Hall : forall d, In d (filter (fun d => negb (memb d m2)) m1) -> memb d (sb s2) = true).
  { intros d Hd. rewrite F20 in Hd. apply in_to_copy in Hd. rewrite F2b. apply Hd. }
  destruct (rmultiple_total r _ s2 c3 s3 Hf2 Hall RM) as [-> _]. reflexivity.
Qed.

Lemma sim_cfm_fallback r ds : sim (cfm ReadFallback r ds).
Proof.
  cbn [cfm]. apply sim_bind; [apply sim_bfm|]. intros [c1 m1]. destruct (negb (c1 =? 0)); [apply (sim_ret (c1, []))|].
  apply sim_bind; [apply sim_bfm|]. intros [c2 m2]. destruct (negb (c2 =? 0)); [apply (sim_ret (c2, []))|].
  apply sim_bind; [apply sim_rmultiple|]. intros c3. destruct (c3 =? 0); [apply (sim_ret (0, m2))|apply (sim_ret (_, []))].
Qed.

Theorem cfm_fallback_answers_unfaulted r ds s c m s1 : cfm ReadFallback r ds s = (c, m, s1) ->
  unfaulted (lg s1) = true -> c = 0.
Proof.
  intros H U. pose proof (proj2 (sim_cfm_fallback r ds _ _ _ H) U) as Hs.
  pose proof (cfm_fallback_total_any r ds (strip s) eq_refl) as T. rewrite Hs in T. exact T.
Qed.

(** Composite read: if no recorded call of the step failed, the result is
    the one of the completeness theorem, whatever faults were left. *)
Theorem cgfc_complete_unfaulted r d s c s1 : (copying r = true \/ r = RNoop) ->
  cgfc r d s = (c, s1) -> unfaulted (lg s1) = true ->
  c = if memb d (sa s) || memb d (sb s) then 0 else 5.
Proof.
  intros Hr H U. destruct (sim_cgfc _ _ _ _ _ H) as [_ Hs]. specialize (Hs U).
  pose proof (cgfc_complete_copying r d (strip s) Hr eq_refl) as C. rewrite Hs in C. exact C.
Qed.

(** ** A backend failure other than NOT_FOUND always surfaces.

    [hard l]: some recorded call carries an injected fault other than
    NOT_FOUND.  [surf X]: [X] extends the log, and if the part it added
    contains such a call, [X] ends with an error.  Holds for Get and
    GetFromComposite through every replicator stack. *)
Definition hardc (c : call) : bool := negb (c_fault c =? 0) && negb (c_fault c =? 5).
Definition hard (l : list call) : bool := existsb hardc l.

Lemma hard_app l1 l2 : hard (l1 ++ l2) = hard l1 || hard l2.
Proof. apply existsb_app. Qed.

Definition sees {A} (bad : A -> Prop) (X : st -> A * st) : Prop :=
  forall s a s1, X s = (a, s1) -> exists l, lg s1 = l ++ lg s /\ (hard l = true -> bad a).
Definition surf : (st -> Z * st) -> Prop := sees (fun c => c <> 0).

(** Sequencing: a hard fault in the first part must force the whole to fail. *)
Lemma sees_bind {A} (bad : A -> Prop) (X : st -> A * st) (K : A -> st -> Z * st) :
  sees bad X -> (forall a, bad a -> forall s c s1, K a s = (c, s1) -> c <> 0) -> (forall a, surf (K a)) ->
  surf (fun s => let (a, s1) := X s in K a s1).
Proof.
  intros HX Hb HK s c s2 H. cbn beta in H. destruct (X s) as [a s1] eqn:E.
  destruct (HX _ _ _ E) as (l1 & L1 & B1). destruct (HK a _ _ _ H) as (l2 & L2 & B2).
  exists (l2 ++ l1). split; [rewrite L2, L1; apply app_assoc|].
  rewrite hard_app. intros Hh. apply orb_prop in Hh. destruct Hh as [Hh|Hh]; [exact (B2 Hh)|exact (Hb a (B1 Hh) _ _ _ H)].
Qed.

Lemma surf_ret c : surf (fun s => (c, s)).
Proof. intros s c' s1 H. injection H as <- <-. exists []. split; [reflexivity|discriminate]. Qed.

Lemma surf_then X Y : surf X -> surf Y -> surf (fun s => let (c, s1) := X s in if c =? 0 then Y s1 else (c, s1)).
Proof.
  intros HX HY. apply (sees_bind (fun c => c <> 0)); [exact HX| |intros c; destruct (c =? 0); [exact HY|apply surf_ret]].
  intros c N s c' s1 H. destruct (Z.eqb_spec c 0); [contradiction|]. injection H as <- _. exact N.
Qed.

(** A single backend call: one log entry; a non-zero fault is the answer. *)
Definition one_call (X : st -> Z * st) : Prop :=
  forall s c s1, X s = (c, s1) -> exists cl, lg s1 = cl :: lg s /\ (c_fault cl <> 0 -> c = c_fault cl).

Lemma record_one b o args s f s1 : record b o args s = (f, s1) -> lg s1 = mkcall b o args f :: lg s.
Proof. unfold record. destruct (fl s); intros H; inversion H; reflexivity. Qed.

Lemma one_bread o b d : one_call (bread o b d).
Proof.
  intros s c s1 H. unfold bread in H. destruct (record b o [d] s) as [f s0] eqn:R.
  apply record_one in R. exists (mkcall b o [d] f). cbn [c_fault].
  destruct (f =? 0) eqn:E; inversion H; subst; split; try exact R; intros Hf.
  - apply Z.eqb_eq in E. contradiction.
  - reflexivity.
Qed.

Lemma one_bput b d buf : one_call (bput b d buf).
Proof.
  intros s c s1 H. unfold bput in H. destruct (record b CPut [d] s) as [f s0] eqn:R.
  apply record_one in R. exists (mkcall b CPut [d] f). cbn [c_fault].
  destruct (f =? 0) eqn:E; cbn [negb] in H.
  - apply Z.eqb_eq in E. split; [|intros Hf; contradiction].
    destruct (negb (buf =? 0)); inversion H; subst; [exact R|]. destruct b; exact R.
  - inversion H; subst. split; [exact R|reflexivity].
Qed.

Lemma one_bfm b ds s c m s1 : bfm b ds s = (c, m, s1) ->
  exists cl, lg s1 = cl :: lg s /\ (c_fault cl <> 0 -> c = c_fault cl).
Proof.
  intros H. unfold bfm in H. destruct (record b CFm ds s) as [f s0] eqn:R.
  apply record_one in R. exists (mkcall b CFm ds f). cbn [c_fault].
  destruct (f =? 0) eqn:E; inversion H; subst; split; try exact R; intros Hf.
  - apply Z.eqb_eq in E. contradiction.
  - reflexivity.
Qed.

Lemma hard_one cl : hard [cl] = true -> c_fault cl <> 0 /\ c_fault cl <> 5.
Proof.
  unfold hard, hardc. cbn [existsb]. rewrite orb_false_r. intros H. apply andb_prop in H. destruct H as [H0 H5].
  apply negb_true_iff in H0, H5. apply Z.eqb_neq in H0, H5. split; assumption.
Qed.

(** The answer of a single call whose log entry is hard: that fault. *)
Lemma sees_one X : one_call X -> sees (fun c => c <> 0 /\ c <> 5) X.
Proof.
  intros HX s c s1 H. destruct (HX _ _ _ H) as (cl & Hl & Hf). exists [cl]. split; [exact Hl|].
  intros Hh. apply hard_one in Hh. destruct Hh as [H0 H5]. rewrite (Hf H0). split; assumption.
Qed.

Lemma surf_one X : one_call X -> surf X.
Proof.
  intros HX s c s1 H. destruct (sees_one X HX _ _ _ H) as (l & Hl & Hb). exists l. split; [exact Hl|].
  intros Hh. apply (Hb Hh).
Qed.

Lemma sees_bfm b ds : sees (fun a : Z * list nat => fst a <> 0) (bfm b ds).
Proof.
  intros s [c m] s1 H. destruct (one_bfm _ _ _ _ _ _ H) as (cl & Hl & Hf). exists [cl]. split; [exact Hl|].
  intros Hh. apply hard_one in Hh. cbn [fst]. rewrite (Hf (proj1 Hh)). apply Hh.
Qed.

Lemma bput_err b d buf s c s1 : bput b d buf s = (c, s1) -> buf <> 0 -> c <> 0.
Proof.
  unfold bput. destruct (record b CPut [d] s) as [f s0].
  destruct (Z.eqb_spec f 0) as [->|N]; cbn [negb]; [|intros H _; injection H as <- _; exact N].
  destruct (Z.eqb_spec buf 0) as [->|Nb]; cbn [negb]; intros H Hb; [contradiction|injection H as <- _; exact Nb].
Qed.

Lemma surf_local_multiple ds : surf (local_multiple ds).
Proof.
  induction ds as [|d r IH]; cbn [local_multiple]; [apply surf_ret|].
  apply (sees_bind (fun b => b <> 0 /\ b <> 5)); [apply sees_one, (one_bread CGet)|
    |intros b; apply surf_then; [apply surf_one, one_bput|exact IH]].
  intros b [Hb _] s c s1 H. destruct (bput BA d b s) as [c0 s2] eqn:P. pose proof (bput_err _ _ _ _ _ _ P Hb) as N.
  destruct (Z.eqb_spec c0 0); [contradiction|]. injection H as <- _. exact N.
Qed.

Lemma surf_local_single d : surf (local_single d).
Proof.
  unfold local_single. apply (sees_bind (fun b => b <> 0 /\ b <> 5)); [apply sees_one, (one_bread CGet)| |].
  - intros b [Hb _] s c s1 H. destruct (bput BA d b s) as [c0 s2].
    destruct (Z.eqb_spec b 0); [contradiction|]. injection H as <- _. exact Hb.
  - intros b. apply (sees_bind (fun c => c <> 0)); [apply surf_one, one_bput| |intros c; destruct (b =? 0); apply surf_ret].
    intros c N s c' s1 H. destruct (Z.eqb_spec b 0); injection H as <- _; assumption.
Qed.

Lemma surf_rmultiple r : forall ds, surf (rmultiple r ds).
Proof.
  induction r as [| |r IH|r IH]; intros ds; cbn [rmultiple].
  - apply surf_local_multiple.
  - apply surf_ret.
  - induction ds as [|d rest IHd]; [apply surf_ret|].
    apply (sees_bind (fun a : Z * list nat => fst a <> 0)); [apply sees_bfm| |].
    + intros [c miss] N s c' s1 H. cbn [fst] in N. destruct (Z.eqb_spec c 0); [contradiction|].
      cbn [negb] in H. injection H as <- _. exact N.
    + intros [c miss]. destruct (negb (c =? 0)); [apply surf_ret|]. destruct miss; [exact IHd|].
      apply surf_then; [apply IH|exact IHd].
  - apply IH.
Qed.

Lemma surf_deco o r d : surf (deco o r d).
Proof.
  unfold deco. apply surf_then; [apply surf_rmultiple|]. unfold sink_nf.
  apply (sees_bind (fun b => b <> 0 /\ b <> 5)); [apply sees_one, one_bread| |intros b; apply surf_ret].
  intros b [H0 H5] s c s1 H. injection H as <- _. apply Z.eqb_neq in H5. rewrite H5. exact H0.
Qed.

Lemma surf_rsingle r d : surf (rsingle r d).
Proof.
  destruct r; [apply surf_local_single|apply surf_one, (one_bread CGet)|apply (surf_deco CGet)|apply (surf_deco CGet)].
Qed.

Lemma surf_rcomposite r d : surf (rcomposite r d).
Proof.
  destruct r; [apply (surf_deco CGfc)|apply surf_one, (one_bread CGfc)|apply (surf_deco CGfc)|apply (surf_deco CGfc)].
Qed.

Lemma surf_cread o X d : surf (X d) -> surf (cread o X d).
Proof.
  intros HX. unfold cread.
  apply (sees_bind (fun b => b <> 0 /\ b <> 5)); [apply sees_one, one_bread| |intros b; destruct (b =? 5); [exact HX|apply surf_ret]].
  intros b [H0 H5] s c s1 H. destruct (Z.eqb_spec b 5); [contradiction|]. injection H as <- _. exact H0.
Qed.

Theorem cgfc_hard_fault_surfaces r p s c s1 : cgfc r p s = (c, s1) ->
  exists l, lg s1 = l ++ lg s /\ (hard l = true -> c <> 0).
Proof. exact (surf_cread CGfc _ p (surf_rcomposite r p) s c s1). Qed.

Theorem cget_hard_fault_surfaces r d s c s1 : cget r d s = (c, s1) ->
  exists l, lg s1 = l ++ lg s /\ (hard l = true -> c <> 0).
Proof. exact (surf_cread CGet _ d (surf_rsingle r d) s c s1). Qed.
