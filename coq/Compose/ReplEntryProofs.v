(** C17L: theorems about the extended system of Compose/ReplEntry.v.

    1. Every run of the extended system projects to a run of the
       ReplicateMultiple system, so the bounds proved there carry over to any
       mix of entry points.
    2. Semaphore accounting of the limiter: in every reachable state the number
       of permits in use equals the number of callers holding one, the FIFO
       holds exactly the callers that wait, and somebody waits only while all
       permits are in use.  Hence every path releases.
    3. Results of the single-object entry points.
    4. Under [MLimit] a caller is never at a program counter of the other two
       decorators ([lpc]).
    5. With all permits free, [lim] further callers are admitted at once
       ([limit_further_copies_run_at_once]). *)
From Coq Require Import List ZArith NArith Bool Arith Lia.
From BBS Require Import Common.ListX Compose.ExistenceCache Compose.ExistenceCacheProofs
  Compose.Replicators Compose.ReplicatorsProofs Compose.MonSilentRepl Compose.ReplEntry.
Import ListNotations.
Local Open Scope nat_scope.

Lemma xstep_base kinds m x e x' : xstep kinds m x e = Some x' ->
  xb x' = xb x \/ step m (xb x) e = Some (xb x').
Proof.
  unfold xstep, lift. intros H.
  destruct e as [i|i f|i|dt|i alt];
    try (destruct (step m (xb x) _) as [b|] eqn:E; [inversion H; subst; right; reflexivity|discriminate]).
  destruct (reading kinds x i) as [d|].
  - inversion H; subst. left. reflexivity.
  - destruct (step m (xb x) (ERel i f)) as [b|] eqn:E; [inversion H; subst; right; reflexivity|discriminate].
Qed.

Lemma xrun_base kinds m tr : forall x x', xrun kinds m x tr = Some x' ->
  exists tr', run m (xb x) tr' = Some (xb x').
Proof.
  induction tr as [|e r IH]; intros x x' H; cbn [xrun] in H.
  - inversion H; subst. exists []. reflexivity.
  - destruct (xstep kinds m x e) as [x1|] eqn:E; [|discriminate].
    destruct (IH _ _ H) as [tr' Htr']. destruct (xstep_base _ _ _ _ _ E) as [Eq|St].
    + exists tr'. rewrite <- Eq. exact Htr'.
    + exists (e :: tr'). cbn [run]. rewrite St. exact Htr'.
Qed.

Lemma xrun_inv kinds m (P : xstate -> Prop) :
  (forall x e x', P x -> xstep kinds m x e = Some x' -> P x') ->
  forall tr x x', P x -> xrun kinds m x tr = Some x' -> P x'.
Proof.
  intros Hstep. induction tr as [|e r IH]; intros x x' Hx H; cbn [xrun] in H.
  - inversion H; subst. exact Hx.
  - destruct (xstep kinds m x e) as [x1|] eqn:E; [|discriminate]. eapply IH; [|exact H]. eapply Hstep; eassumption.
Qed.

Theorem mix_limit_bound lim kinds sets source sink tr x :
  xrun kinds (MLimit lim) (xinit kinds sets source sink) tr = Some x ->
  copies (xb x) <= lim /\ maxall (xb x) <= lim.
Proof.
  intros H. destruct (xrun_base _ _ _ _ _ H) as [tr' Htr']. unfold xinit in Htr'. cbn [xb] in Htr'. split.
  - eapply limit_at_most_k_copies; exact Htr'.
  - exact (maxima_bounded (MLimit lim) _ _ _ _ _ Htr').
Qed.

Theorem mix_dedup_bound kinds sets source sink tr x :
  xrun kinds MDedup (xinit kinds sets source sink) tr = Some x ->
  (forall k, copies_of k (xb x) <= 1) /\ maxkey (xb x) <= 1.
Proof.
  intros H. destruct (xrun_base _ _ _ _ _ H) as [tr' Htr']. unfold xinit in Htr'. cbn [xb] in Htr'. split.
  - eapply dedup_one_copy_per_key; exact Htr'.
  - exact (maxima_bounded MDedup _ _ _ _ _ Htr').
Qed.

Definition wait_at (s : cstate) (j : nat) : Prop :=
  exists tj, nth_error (thr s) j = Some tj /\ tpc tj = WaitSem.

Lemma holders_count s : holders s = count holder (thr s).
Proof. reflexivity. Qed.

(** Every path releases: the permits in use are exactly those of callers that
    are inside the base replicator (or were just handed one); the FIFO holds
    exactly the waiting callers; somebody waits only when all permits are in
    use - for any mix of entry points, faults and cancellations. *)
Theorem mix_limit_accounting lim kinds sets source sink tr x :
  xrun kinds (MLimit lim) (xinit kinds sets source sink) tr = Some x ->
  holders (xb x) = cur (xb x) /\
  (forall j, In j (semq (xb x)) <-> wait_at (xb x) j) /\
  (semq (xb x) <> [] -> cur (xb x) = lim).
Proof.
  intros H. destruct (xrun_base _ _ _ _ _ H) as [tr' Htr']. unfold xinit in Htr'. cbn [xb] in Htr'.
  destruct (limit_accounting _ _ _ _ _ _ Htr') as [P R]. split; [|split].
  - rewrite holders_count. apply (p_cnt _ _ P).
  - apply (p_q _ _ P).
  - intros Hq. pose proof (R Hq). pose proof (p_le _ _ P). lia.
Qed.

(** When no caller is inside the base replicator or queued - in particular
    when every caller has returned, on whichever path - no permit is in use
    and nobody is queued. *)
Theorem mix_limit_all_released lim kinds sets source sink tr x :
  xrun kinds (MLimit lim) (xinit kinds sets source sink) tr = Some x ->
  (forall i t, nth_error (thr (xb x)) i = Some t -> tpc t = NotStarted \/ exists c, tpc t = Done c) ->
  cur (xb x) = 0 /\ semq (xb x) = [].
Proof.
  intros H Hall. destruct (mix_limit_accounting _ _ _ _ _ _ _ H) as (A & B & _). split.
  - rewrite <- A, holders_count. apply count_zero. intros t Hin. apply In_nth_error in Hin. destruct Hin as [i Hi].
    unfold holder. destruct (Hall i t Hi) as [E|[c E]]; rewrite E; reflexivity.
  - destruct (semq (xb x)) as [|j q] eqn:E; [reflexivity|]. exfalso.
    destruct (proj1 (B j) (or_introl eq_refl)) as (tj & Hj & Hw).
    destruct (Hall j tj Hj) as [E1|[c E1]]; congruence.
Qed.

(** The read-back reports OK exactly when the backend call was not faulted
    and the sink holds the object at that moment. *)
Lemma read_code_ok f d sink : read_code f d sink = 0%Z <-> f = 0%Z /\ memn d sink = true.
Proof.
  unfold read_code. destruct (f =? 0)%Z eqn:E; cbn [negb].
  - apply Z.eqb_eq in E. subst. destruct (memn d sink); split; try tauto; try discriminate. intros [_ X]. discriminate.
  - apply Z.eqb_neq in E. split; [|tauto]. destruct (f =? 5)%Z; [discriminate|]. intros X. contradiction.
Qed.

(** A caller of ReplicateSingle / ReplicateComposite reads the sink only after
    its ReplicateMultiple part returned OK, and the step that ends the read
    reports [read_code]. *)
Theorem read_back_step kinds m x i f d :
  reading kinds x i = Some d ->
  xstep kinds m x (ERel i f) = Some (mkxs (xb x) (upd i (PRead (read_code f d (snk (xb x)))) (xpost x))) /\
  exists t, nth_error (thr (xb x)) i = Some t /\ tpc t = Done 0 /\ read_obj (nth i kinds KMulti) = Some d.
Proof.
  intros H. split; [unfold xstep; rewrite H; reflexivity|].
  unfold reading in H. destruct (nth_error (thr (xb x)) i) as [t|]; [|discriminate].
  destruct (nth i (xpost x) PNone); [|discriminate]. destruct (tpc t) eqn:Hp; try discriminate.
  destruct c; try discriminate. exists t. repeat split; [exact Hp|exact H].
Qed.

(** The transition system is shared by the three decorators; under [MLimit] a
    caller is never at a program counter of the other two. *)
Definition lpc (t : thread) : Prop :=
  match tpc t with Wait _ _ | Fm _ _ | Unreg _ _ _ | Close _ _ _ | WaitTok => False | _ => True end.

Lemma lpc_at lim s i t : linv lim s -> nth_error (thr s) i = Some t -> lpc t.
Proof.
  intros [P _] Hi. pose proof (proj1 (Forall_forall _ _) (p_pc _ _ P) t (nth_error_In _ _ Hi)) as L.
  unfold lim_pc in L. unfold lpc. destruct (tpc t); try discriminate L; exact Logic.I.
Qed.

Lemma lpc_next_after_key t : lpc (next_after_key t).
Proof. unfold next_after_key, lpc. destruct (todo t) as [|? [|? ?]]; exact Logic.I. Qed.

Definition fresh (s : cstate) (i : nat) : Prop :=
  exists t d rest, nth_error (thr s) i = Some t /\ tpc t = NotStarted /\ cancelled t = false /\ todo t = d :: rest.

Lemma arrive_one lim s i : fresh s i -> semq s = [] -> cur s < lim ->
  exists s2, run (MLimit lim) s [EStart i; ETau i false] = Some s2 /\ semq s2 = [] /\ cur s2 = S (cur s) /\
             (exists t2, nth_error (thr s2) i = Some t2 /\ in_copy t2 = true) /\
             (forall j, j <> i -> nth_error (thr s2) j = nth_error (thr s) j).
Proof.
  intros (t & d & rest & Ht & Hp & Hc & Htd) Hq Hlt.
  set (t1 := mkthr Idle (todo t) (cancelled t) (bset t)).
  set (s1 := set_thr i t1 s).
  assert (S1 : step (MLimit lim) s (EStart i) = Some s1).
  { cbn [step]. rewrite Ht, Hp. reflexivity. }
  assert (Ht1 : nth_error (thr s1) i = Some t1) by (cbn [s1 set_thr thr]; eapply nth_error_upd_eq; exact Ht).
  set (s1' := mkcs (thr s1) (inflight s1) (ents s1) (src s1) (snk s1) (S (cur s1)) (semq s1) (tok s1) (qcache s1) (clk s1) (maxkey s1) (maxall s1)).
  assert (S2 : step (MLimit lim) s1 (ETau i false) = Some (begin_base (MLimit lim) i t1 (d :: rest) 0 0 s1')).
  { cbn [step]. rewrite Ht1. cbn [t1 tpc cancelled todo]. rewrite Hc, Htd.
    assert (E : Nat.ltb (cur s1) lim && match semq s1 with [] => true | _ => false end = true).
    { cbn [s1 set_thr cur semq]. rewrite Hq. apply andb_true_intro. split; [apply Nat.ltb_lt; exact Hlt|reflexivity]. }
    rewrite E. reflexivity. }
  eexists. split; [cbn [run]; rewrite S1, S2; reflexivity|].
  unfold begin_base. cbn [s1' s1 set_thr note_max thr cur semq]. rewrite !upd_upd.
  split; [exact Hq|]. split; [reflexivity|]. split.
  - eexists. split; [eapply nth_error_upd_eq; exact Ht|reflexivity].
  - intros j Hj. apply nth_error_upd_neq. congruence.
Qed.

Lemma run_app m tr1 : forall s tr2, run m s (tr1 ++ tr2) = match run m s tr1 with Some s1 => run m s1 tr2 | None => None end.
Proof.
  induction tr1 as [|e r IH]; intros s tr2; cbn [app run]; [reflexivity|].
  destruct (step m s e); [apply IH|reflexivity].
Qed.

Lemma arrivals_admitted lim : forall late s,
  semq s = [] -> NoDup late -> cur s + length late <= lim -> (forall i, In i late -> fresh s i) ->
  exists s', run (MLimit lim) s (arrivals late) = Some s' /\ semq s' = [] /\ cur s' = cur s + length late /\
             (forall i, In i late -> exists t, nth_error (thr s') i = Some t /\ in_copy t = true) /\
             (forall j, ~ In j late -> nth_error (thr s') j = nth_error (thr s) j).
Proof.
  induction late as [|i late IH]; intros s Hq Nd Hle Hf.
  - exists s. cbn. repeat split; [exact Hq|lia|intros i []].
  - inversion Nd as [|? ? Hni Nd']; subst. cbn [length] in Hle.
    destruct (arrive_one lim s i (Hf i (or_introl eq_refl)) Hq ltac:(lia)) as (s2 & R2 & Q2 & C2 & (t2 & Ht2 & Hc2) & O2).
    destruct (IH s2 Q2 Nd' ltac:(lia)) as (s' & R' & Q' & C' & A' & O').
    { intros j Hj. destruct (Hf j (or_intror Hj)) as (t & d & rest & Ht & Hrest).
      exists t, d, rest. split; [|exact Hrest]. rewrite O2; [exact Ht|]. intros ->. contradiction. }
    exists s'. split; [|split; [exact Q'|split; [cbn [length]; lia|split]]].
    + change (arrivals (i :: late)) with ([EStart i; ETau i false] ++ arrivals late). rewrite run_app, R2. exact R'.
    + intros j [<-|Hj]; [|apply A', Hj]. exists t2. split; [|exact Hc2]. rewrite O'; [exact Ht2|exact Hni].
    + intros j Hj. rewrite O'; [|intros X; apply Hj; right; exact X]. apply O2. intros ->. apply Hj. left. reflexivity.
Qed.

Theorem limit_further_copies_run_at_once lim s late :
  cur s = 0 -> semq s = [] -> NoDup late -> length late <= lim ->
  (forall i, In i late -> exists t d rest, nth_error (thr s) i = Some t /\ tpc t = NotStarted /\
                                            cancelled t = false /\ todo t = d :: rest) ->
  exists s', run (MLimit lim) s (arrivals late) = Some s' /\
             (forall i, In i late -> exists t, nth_error (thr s') i = Some t /\ in_copy t = true) /\
             cur s' = length late.
Proof.
  intros Hc Hq Nd Hle Hf.
  destruct (arrivals_admitted lim late s Hq Nd ltac:(lia) Hf) as (s' & R & _ & C & A & _).
  exists s'. split; [exact R|split; [exact A|lia]].
Qed.
