(** C17: invariants of the replicator-decorator transition system, for every
    trace accepted by [run] (any number of callers, any interleaving of the
    atomic steps, any faults, cancellations and clock advances);
    [dedup_success_justified] is stated for the traces accepted by [grun],
    which runs [step MDedup] and collects the history events. *)
From Coq Require Import List ZArith NArith Bool Arith Lia.
From BBS Require Import Common.ListX Compose.ExistenceCache Compose.ExistenceCacheProofs Compose.Replicators.
Import ListNotations.
Open Scope Z_scope.

Lemma nth_error_upd_eq {T} i (x : T) l y : nth_error l i = Some y -> nth_error (upd i x l) i = Some x.
Proof. revert i. induction l as [|h t IH]; intros [|i] H; cbn in *; try discriminate; auto. Qed.

Lemma nth_error_upd_neq {T} i j (x : T) l : i <> j -> nth_error (upd i x l) j = nth_error l j.
Proof.
  revert i j. induction l as [|h t IH]; intros [|i] [|j] H; cbn; try reflexivity; try congruence.
  apply IH. congruence.
Qed.

Lemma nth_error_upd_inv {T} i j (x t : T) l : nth_error (upd i x l) j = Some t ->
  (j = i /\ t = x) \/ (j <> i /\ nth_error l j = Some t).
Proof.
  destruct (Nat.eq_dec i j) as [->|Hn].
  - intros H. left. split; [reflexivity|].
    destruct (nth_error l j) as [y|] eqn:E.
    + rewrite (nth_error_upd_eq _ _ _ _ E) in H. congruence.
    + exfalso. revert j H E. induction l as [|h tl IH]; intros [|j] H E; cbn in *; try discriminate. eapply IH; eassumption.
  - intros H. right. split; [congruence|]. rewrite nth_error_upd_neq in H by assumption. exact H.
Qed.

Lemma upd_upd {T} i (x y : T) l : upd i x (upd i y l) = upd i x l.
Proof. revert i. induction l as [|h t IH]; intros [|i]; cbn; try reflexivity. rewrite IH. reflexivity. Qed.

Lemma fold_left_inv {S T} (f : S -> T -> S) (I : S -> Prop) l : forall a, I a ->
  (forall a x, I a -> In x l -> I (f a x)) -> I (fold_left f l a).
Proof.
  induction l as [|x l IH]; intros a Ha H; cbn [fold_left]; [exact Ha|].
  apply IH; [apply H; [exact Ha|left; reflexivity]|]. intros a' y Ha' Hy. apply H; [exact Ha'|right; exact Hy].
Qed.

Lemma Forall_upd {T} (Q : T -> Prop) i x l : Forall Q l -> Q x -> Forall Q (upd i x l).
Proof.
  revert i. induction l as [|h t IH]; intros [|i] H Hx; cbn [upd]; try exact H.
  - inversion H; subst. constructor; assumption.
  - inversion H; subst. constructor; [assumption|apply IH; assumption].
Qed.

Definition count {T} (p : T -> bool) (l : list T) : nat := length (filter p l).
Definition b2n (b : bool) : nat := if b then 1%nat else 0%nat.

Lemma count_upd {T} (p : T -> bool) i x l y : nth_error l i = Some y ->
  (count p (upd i x l) + b2n (p y) = count p l + b2n (p x))%nat.
Proof.
  revert i. induction l as [|h t IH]; intros [|i] H; cbn in *; try discriminate.
  - inversion H; subst. unfold count. cbn. destruct (p x), (p y); cbn; lia.
  - specialize (IH i H). unfold count in *. cbn. destruct (p h); cbn; lia.
Qed.

Lemma count_le_1 {T} (p : T -> bool) l :
  (forall i j x y, nth_error l i = Some x -> nth_error l j = Some y -> p x = true -> p y = true -> i = j) ->
  (count p l <= 1)%nat.
Proof.
  induction l as [|h t IH]; intros H; unfold count in *; cbn; [lia|].
  destruct (p h) eqn:Ph.
  - assert (E : filter p t = []).
    { destruct (filter p t) as [|z zs] eqn:F; [reflexivity|]. exfalso.
      assert (Hz : In z (filter p t)) by (rewrite F; left; reflexivity).
      apply filter_In in Hz. destruct Hz as [Hin Pz]. apply In_nth_error in Hin. destruct Hin as [j Hj].
      specialize (H 0%nat (S j) h z eq_refl Hj Ph Pz). discriminate. }
    rewrite E. cbn. lia.
  - apply IH. intros i j x y Hi Hj Px Py. specialize (H (S i) (S j) x y Hi Hj Px Py). congruence.
Qed.

Lemma count_init (p : thread -> bool) sets : (forall ds, p (init_thread ds) = false) -> count p (map init_thread sets) = 0%nat.
Proof. intros H. unfold count. induction sets as [|a r IH]; cbn; [reflexivity|]. rewrite H. exact IH. Qed.

Lemma count_le_in {T} (p q : T -> bool) l : (forall x, In x l -> p x = true -> q x = true) -> (count p l <= count q l)%nat.
Proof.
  unfold count. induction l as [|a r IH]; intros H; cbn; [lia|].
  assert (IH' : (length (filter p r) <= length (filter q r))%nat) by (apply IH; intros x Hx; apply H; right; exact Hx).
  destruct (p a) eqn:P; [rewrite (H a (or_introl eq_refl) P); cbn; lia|]. destruct (q a); cbn; lia.
Qed.

Lemma nth_error_init sets j tj : nth_error (map init_thread sets) j = Some tj -> exists ds, tj = init_thread ds.
Proof. intros H. apply nth_error_In, in_map_iff in H. destruct H as (ds & <- & _). exists ds. reflexivity. Qed.

Lemma thr_note_max ds s : thr (note_max ds s) = thr s. Proof. reflexivity. Qed.

Lemma notify_other fuel k : forall s,
  inflight (notify fuel k s) = inflight s /\ tok (notify fuel k s) = tok s.
Proof.
  induction fuel as [|f IH]; intros s; cbn [notify]; [auto|].
  destruct (semq s) as [|j q']; [auto|]. destruct (Nat.ltb (cur s) k); [|auto].
  destruct (nth_error (thr s) j); [|auto]. destruct (IH (mkcs (upd j (mkthr Granted (todo t) (cancelled t) (bset t)) (thr s)) (inflight s) (ents s) (src s) (snk s) (S (cur s)) q' (tok s) (qcache s) (clk s) (maxkey s) (maxall s))) as [A B].
  cbn in A, B. auto.
Qed.

(** * Deduplicating replicator: never more than one concurrent copy per key *)
Definition owns (t : thread) : option nat :=
  match tpc t with
  | Fm k _ | Unreg k _ _ => Some k
  | Get d _ _ | Put d _ _ _ => Some d
  | _ => None
  end.
Definition single_rest (t : thread) : Prop :=
  match tpc t with Get _ r _ | Put _ _ r _ => r = [] | _ => True end.

Record dinv (s : cstate) : Prop := mkdinv {
  d_reg : forall i t k, nth_error (thr s) i = Some t -> owns t = Some k -> lookup_key k (inflight s) <> None;
  d_uniq : forall i j ti tj k, nth_error (thr s) i = Some ti -> nth_error (thr s) j = Some tj ->
             owns ti = Some k -> owns tj = Some k -> i = j;
  d_rest : forall i t, nth_error (thr s) i = Some t -> single_rest t }.

Lemma lookup_key_remove k k' m :
  lookup_key k (remove_inflight k' m) = if Nat.eqb k k' then None else lookup_key k m.
Proof.
  unfold remove_inflight. induction m as [|[a e] r IH]; cbn [filter lookup_key fst]; [destruct (Nat.eqb k k'); reflexivity|].
  destruct (Nat.eqb a k') eqn:E1; cbn [negb lookup_key].
  - rewrite IH. destruct (Nat.eqb k k') eqn:E2; [reflexivity|].
    destruct (Nat.eqb k a) eqn:E3; [|reflexivity].
    apply Nat.eqb_eq in E1, E3. subst. rewrite Nat.eqb_refl in E2. discriminate.
  - rewrite IH. destruct (Nat.eqb k a) eqn:E3; [|reflexivity].
    apply Nat.eqb_eq in E3. subst. rewrite E1. reflexivity.
Qed.

Lemma dinv_upd s s' i t t' : dinv s -> nth_error (thr s) i = Some t ->
  thr s' = upd i t' (thr s) -> single_rest t' ->
  (forall k, owns t' = Some k ->
     lookup_key k (inflight s') <> None /\ (owns t = Some k \/ lookup_key k (inflight s) = None)) ->
  (forall k, lookup_key k (inflight s) <> None -> lookup_key k (inflight s') <> None \/ owns t = Some k) ->
  dinv s'.
Proof.
  intros [R U S] Hi Ht Hs Hn Hf. constructor.
  - intros j tj k Hj Hk. rewrite Ht in Hj. apply nth_error_upd_inv in Hj.
    destruct Hj as [[-> ->]|[Nj Hj]]; [apply (Hn k Hk)|].
    destruct (Hf k (R j tj k Hj Hk)) as [X|X]; [exact X|]. exfalso. apply Nj. eapply U; eassumption.
  - intros a b ta tb k Ha Hb Oa Ob. rewrite Ht in Ha, Hb.
    apply nth_error_upd_inv in Ha. apply nth_error_upd_inv in Hb.
    destruct Ha as [[-> ->]|[Na Ha]], Hb as [[-> ->]|[Nb Hb]]; [reflexivity| | |eapply U; eassumption].
    + destruct (Hn k Oa) as [_ [X|X]]; [eapply U; eassumption|exfalso; exact (R b tb k Hb Ob X)].
    + destruct (Hn k Ob) as [_ [X|X]]; [eapply U; eassumption|exfalso; exact (R a ta k Ha Oa X)].
  - intros j tj Hj. rewrite Ht in Hj. apply nth_error_upd_inv in Hj.
    destruct Hj as [[-> ->]|[_ Hj]]; [exact Hs|eapply S; eassumption].
Qed.

Lemma dinv_keep s s' i t t' : dinv s -> nth_error (thr s) i = Some t ->
  thr s' = upd i t' (thr s) -> inflight s' = inflight s ->
  (forall k, owns t' = Some k -> owns t = Some k) -> single_rest t' -> dinv s'.
Proof.
  intros D Hi Ht Hf Ho Hs. apply (dinv_upd s s' i t t' D Hi Ht Hs); rewrite Hf.
  - intros k Hk. apply Ho in Hk. split; [eapply (d_reg _ D); eassumption|left; exact Hk].
  - intros k Hk. left. exact Hk.
Qed.

Lemma dinv_same s s' : dinv s -> thr s' = thr s -> inflight s' = inflight s -> dinv s'.
Proof. intros [R U S] Ht Hf. constructor; rewrite ?Ht, ?Hf; assumption. Qed.

Lemma thr_begin_base_dedup i t k e s :
  thr (begin_base MDedup i t [k] e k s) = upd i (mkthr (Get k [] e) (todo t) (cancelled t) (Some [k])) (thr s)
  /\ inflight (begin_base MDedup i t [k] e k s) = inflight s.
Proof. unfold begin_base. cbn. rewrite upd_upd. auto. Qed.

(* A step that only sets caller i's pc: what the new pc owns, and its rest, compute from [Hp]. *)
Ltac dkeep i Hp :=
  eapply dinv_keep with (i := i);
  [eassumption|eassumption|reflexivity|reflexivity
  |intros ?; unfold owns; cbn [tpc]; rewrite ?Hp; congruence
  |unfold single_rest; cbn [tpc]; auto].

Lemma next_after_key_owns t : owns (next_after_key t) = None /\ single_rest (next_after_key t).
Proof. unfold next_after_key, owns, single_rest. destruct (todo t) as [|? [|? ?]]; cbn; auto. Qed.

Lemma dedup_step_inv s e s' : dinv s -> step MDedup s e = Some s' -> dinv s'.
Proof.
  intros I H. destruct e as [i|i f|i|dt|i alt]; cbn [step] in H.
  - destruct (nth_error (thr s) i) as [t|] eqn:Ht; [|discriminate].
    destruct (tpc t) eqn:Hp; try discriminate. injection H as <-.
    destruct (todo t) eqn:Htd; dkeep i Hp.
  - destruct (nth_error (thr s) i) as [t|] eqn:Ht; [|discriminate].
    pose proof (d_rest _ I _ _ Ht) as R. unfold single_rest in R.
    destruct (tpc t) eqn:Hp; try discriminate.
    +
      destruct (negb (f =? 0)); [|destruct (memn k (snk s))]; injection H as <-; [dkeep i Hp|dkeep i Hp|].
      destruct (thr_begin_base_dedup i t k e s) as [A B].
      eapply dinv_keep with (i := i); [exact I|exact Ht|exact A|exact B| |reflexivity].
      intros k' X. unfold owns. rewrite Hp. exact X.
    +
      injection H as <-. dkeep i Hp.
    +
      subst rest.
      destruct ((if negb (f =? 0) then f else b) =? 0); injection H as <-; dkeep i Hp.
  - destruct (nth_error (thr s) i) as [t|] eqn:Ht; [|discriminate].
    pose proof (d_rest _ I _ _ Ht) as R.
    destruct (cancelled t); [discriminate|]. injection H as <-.
    eapply dinv_keep with (i := i); [eassumption|eassumption|reflexivity|reflexivity|intros k X; exact X|exact R].
  - injection H as <-. eapply dinv_same; [eassumption| |]; reflexivity.
  - destruct (nth_error (thr s) i) as [t|] eqn:Ht; [|discriminate].
    destruct (next_after_key_owns t) as [NO NS].
    destruct (tpc t) eqn:Hp; destruct alt; try discriminate.
    +
      destruct (todo t) as [|k rest] eqn:Htd; [discriminate|].
      destruct (lookup_key k (inflight s)) as [e0|] eqn:L; injection H as <-.
      * dkeep i Hp.
      * eapply dinv_upd with (i := i); [exact I|exact Ht|reflexivity|exact Logic.I| |]; cbn [inflight set_pc set_thr lookup_key owns tpc].
        -- intros k' Hk'. injection Hk' as <-. rewrite Nat.eqb_refl. split; [discriminate|right; exact L].
        -- intros k' Hk'. left. destruct (Nat.eqb k' k); [discriminate|exact Hk'].
    + (* Wait, cancelled *)
      destruct (cancelled t); [|discriminate]. injection H as <-. dkeep i Hp.
    + (* Wait, woken *)
      destruct (nth_error (ents s) e) as [[[] []]|]; try discriminate; injection H as <-.
      * eapply dinv_keep with (i := i); [eassumption|eassumption|reflexivity|reflexivity| |exact NS].
        intros k' X. rewrite NO in X. discriminate X.
      * dkeep i Hp.
    +
      injection H as <-.
      eapply dinv_upd with (i := i); [exact I|exact Ht|reflexivity|exact Logic.I| |]; cbn [inflight set_pc set_thr owns tpc].
      * intros k' Hk'. discriminate.
      * intros k' Hk'. rewrite lookup_key_remove. destruct (Nat.eqb_spec k' k) as [->|_]; [right|left; exact Hk'].
        unfold owns. rewrite Hp. reflexivity.
    +
      destruct (c =? 0); injection H as <-.
      * eapply dinv_keep with (i := i); [eassumption|eassumption|reflexivity|reflexivity| |exact NS].
        intros k' X. rewrite NO in X. discriminate X.
      * dkeep i Hp.
    + destruct (cancelled t); discriminate.
    + destruct (cancelled t); [|discriminate]. injection H as <-. dkeep i Hp.
Qed.

Lemma dinv_init sets source sink : dinv (init_state sets source sink).
Proof.
  assert (H : forall i t, nth_error (map init_thread sets) i = Some t -> tpc t = NotStarted).
  { intros i t Hi. apply nth_error_init in Hi. destruct Hi as [ds ->]. reflexivity. }
  constructor; cbn [init_state thr inflight].
  - intros i t k Hi Ho. unfold owns in Ho. rewrite (H _ _ Hi) in Ho. discriminate.
  - intros i j ti tj k Hi _ Ho. unfold owns in Ho. rewrite (H _ _ Hi) in Ho. discriminate.
  - intros i t Hi. unfold single_rest. rewrite (H _ _ Hi). exact Logic.I.
Qed.

Lemma run_inv (m : mode) (P : cstate -> Prop) :
  (forall s e s', P s -> step m s e = Some s' -> P s') ->
  forall tr s s', P s -> run m s tr = Some s' -> P s'.
Proof.
  intros Hstep. induction tr as [|e r IH]; intros s s' Hs H; cbn in H.
  - inversion H; subst. exact Hs.
  - destruct (step m s e) as [s1|] eqn:E; [|discriminate]. eapply IH; [|exact H]. eapply Hstep; eassumption.
Qed.

Theorem dedup_one_copy_per_key sets source sink tr s :
  run MDedup (init_state sets source sink) tr = Some s -> forall k, (copies_of k s <= 1)%nat.
Proof.
  intros H k.
  assert (I : dinv s).
  { eapply (run_inv MDedup dinv); [|apply dinv_init|exact H]. intros; eapply dedup_step_inv; eassumption. }
  unfold copies_of. apply (count_le_1 (copying_key k)).
  intros i j x y Hi Hj Px Py. apply (d_uniq _ I i j x y k Hi Hj).
  - unfold copying_key in Px. unfold owns. destruct (tpc x); try discriminate; apply Nat.eqb_eq in Px; subst; reflexivity.
  - unfold copying_key in Py. unfold owns. destruct (tpc y); try discriminate; apply Nat.eqb_eq in Py; subst; reflexivity.
Qed.

(** * Queued replicator: never more than one concurrent copy *)
Definition qinv (s : cstate) : Prop := (count in_copy (thr s) + b2n (tok s) <= 1)%nat.

Lemma qinv_keep s s' i t t' : qinv s -> nth_error (thr s) i = Some t ->
  thr s' = upd i t' (thr s) -> tok s' = tok s -> (in_copy t' = true -> in_copy t = true) -> qinv s'.
Proof.
  unfold qinv. intros A Ht Hthr Htok Hc. rewrite Hthr, Htok.
  pose proof (count_upd in_copy i t' (thr s) t Ht) as C.
  destruct (in_copy t'); [rewrite (Hc eq_refl) in C|]; destruct (in_copy t); cbn [b2n] in C; lia.
Qed.

Lemma queued_step_inv size dur s e s' : qinv s -> step (MQueued size dur) s e = Some s' -> qinv s'.
Proof.
  intros A H. destruct e as [i|i f|i|dt|i alt]; cbn [step] in H.
  - destruct (nth_error (thr s) i) as [t|] eqn:Ht; [|discriminate].
    destruct (tpc t) eqn:Hp; try discriminate. injection H as <-.
    eapply (qinv_keep s _ i t _ A Ht); [reflexivity|reflexivity|]. discriminate.
  - destruct (nth_error (thr s) i) as [t|] eqn:Ht; [|discriminate].
    destruct (tpc t) eqn:Hp; try discriminate;
      assert (Hin : in_copy t = true) by (unfold in_copy; rewrite Hp; reflexivity).
    + injection H as <-. eapply (qinv_keep s _ i t _ A Ht); [reflexivity|reflexivity|]. intros _. exact Hin.
    + (* end of the base call: out of the copy, token back *)
      assert (Hfin : forall c s0, thr s0 = thr s -> qinv (finish_base (MQueued size dur) i t e d c s0)).
      { intros c s0 E1. unfold qinv in *. cbn [finish_base thr tok set_thr]. rewrite E1.
        pose proof (count_upd in_copy i (mkthr (Done c) (todo t) (cancelled t) None) (thr s) t Ht) as C.
        rewrite Hin in C. cbn [in_copy tpc b2n] in C. destruct (tok s); cbn [b2n] in *; lia. }
      destruct ((if negb (f =? 0) then f else b) =? 0).
      * destruct rest as [|d' rest']; injection H as <-; [apply Hfin; reflexivity|].
        eapply (qinv_keep s _ i t _ A Ht); [reflexivity|reflexivity|]. intros _. exact Hin.
      * injection H as <-. apply Hfin; reflexivity.
  - destruct (nth_error (thr s) i) as [t|] eqn:Ht; [|discriminate].
    destruct (cancelled t); [discriminate|]. injection H as <-.
    eapply (qinv_keep s _ i t _ A Ht); [reflexivity|reflexivity|]. intros X. exact X.
  - injection H as <-. exact A.
  - destruct (nth_error (thr s) i) as [t|] eqn:Ht; [|discriminate].
    destruct (tpc t) eqn:Hp; destruct alt; try discriminate; try (destruct (cancelled t); discriminate).
    +
      destruct (ec_remove_existing dur (clk s) (todo t) (qcache s)) as [mm c1].
      injection H as <-. eapply (qinv_keep s _ i t _ A Ht); [reflexivity|reflexivity|]. destruct mm; discriminate.
    + destruct (cancelled t); [|discriminate]. injection H as <-.
      eapply (qinv_keep s _ i t _ A Ht); [reflexivity|reflexivity|]. discriminate.
    + destruct (nth_error (ents s) e) as [[[] []]|]; try discriminate; injection H as <-;
        (eapply (qinv_keep s _ i t _ A Ht); [reflexivity|reflexivity|]); [|discriminate].
      unfold next_after_key. destruct (todo t) as [|? [|? ?]]; discriminate.
    + injection H as <-. eapply (qinv_keep s _ i t _ A Ht); [reflexivity|reflexivity|]. discriminate.
    + destruct (c =? 0); injection H as <-;
        (eapply (qinv_keep s _ i t _ A Ht); [reflexivity|reflexivity|]); [|discriminate].
      unfold next_after_key. destruct (todo t) as [|? [|? ?]]; discriminate.
    + destruct (cancelled t); [|discriminate]. injection H as <-.
      eapply (qinv_keep s _ i t _ A Ht); [reflexivity|reflexivity|]. discriminate.
    + (* WaitTok: takes the token *)
      destruct (tok s) eqn:Tk; [|discriminate].
      destruct (ec_remove_existing dur (clk s) (todo t) (qcache s)) as [mm c1].
      assert (Hnc : in_copy t = false) by (unfold in_copy; rewrite Hp; reflexivity).
      injection H as <-. unfold qinv in *. rewrite Tk in A. cbn [b2n] in A. unfold begin_base.
      destruct mm as [|d rest]; cbn [finish_base thr tok set_thr note_max todo cancelled]; rewrite upd_upd.
      * pose proof (count_upd in_copy i (mkthr (Done 0) (todo t) (cancelled t) None) (thr s) t Ht) as C.
        rewrite Hnc in C. cbn [in_copy tpc b2n] in C. cbn [b2n]. lia.
      * pose proof (count_upd in_copy i (mkthr (Get d rest 0) (todo t) (cancelled t) (Some (d :: rest))) (thr s) t Ht) as C.
        rewrite Hnc in C. cbn [in_copy tpc b2n] in C. cbn [b2n]. lia.
Qed.

Theorem queued_at_most_one_copy size dur sets source sink tr s :
  run (MQueued size dur) (init_state sets source sink) tr = Some s -> (copies s <= 1)%nat.
Proof.
  intros H.
  assert (I : qinv s).
  { eapply (run_inv (MQueued size dur) qinv); [| |exact H].
    - intros; eapply queued_step_inv; eassumption.
    - unfold qinv. cbn [init_state thr tok]. rewrite count_init; [cbn; lia|reflexivity]. }
  unfold qinv in I. unfold copies. fold (count in_copy (thr s)). lia.
Qed.

(** * Deduplicating replicator: a reported success is justified

    History variables: the events below are a function of the pre-state and
    the step taken ([gstep]); [grun] collects them, newest first. *)
Inductive gev :=
| GAsk (i k e : nat)     (* caller i asked for key k: it found, or created, in-flight entry e *)
| GJust (e : nat)        (* the owner of entry e saw the sink report "present", or its copy completed *)
| GSucc (i k e : nat).   (* caller i is told "success" for key k on the strength of entry e *)

Definition gstep (s : cstate) (e : ev) : list gev :=
  match e with
  | ETau i false =>
      match nth_error (thr s) i with
      | Some t =>
          match tpc t with
          | Idle => match todo t with
                    | k :: _ => [GAsk i k (match lookup_key k (inflight s) with Some e => e | None => length (ents s) end)]
                    | [] => []
                    end
          | Wait k e => match nth_error (ents s) e with Some (true, true) => [GSucc i k e] | _ => [] end
          | Close k e c => if c =? 0 then [GSucc i k e] else []
          | _ => []
          end
      | None => []
      end
  | ERel i f =>
      match nth_error (thr s) i with
      | Some t =>
          match tpc t with
          | Fm k e => if (f =? 0) && memn k (snk s) then [GJust e] else []
          | Put d b [] e => if (if negb (f =? 0) then f else b) =? 0 then [GJust e] else []
          | _ => []
          end
      | None => []
      end
  | _ => []
  end.

Fixpoint grun (s : cstate) (tr : list ev) (log : list gev) : option (cstate * list gev) :=
  match tr with
  | [] => Some (s, log)
  | e :: r => match step MDedup s e with
              | Some s' => grun s' r (gstep s e ++ log)
              | None => None
              end
  end.

(** What a pc says about the entry its caller asked for. *)
Definition asked (t : thread) : option (nat * nat) :=
  match tpc t with
  | Wait k e | Fm k e | Unreg k e _ | Close k e _ => Some (k, e)
  | Get d _ e | Put d _ _ e => Some (d, e)
  | _ => None
  end.
Definition done_ok (t : thread) : option nat :=
  match tpc t with
  | Unreg _ e c | Close _ e c => if c =? 0 then Some e else None
  | _ => None
  end.

Record ginv (s : cstate) (log : list gev) : Prop := mkginv {
  g_d : dinv s;
  g_ask : forall i t k e, nth_error (thr s) i = Some t -> asked t = Some (k, e) -> In (GAsk i k e) log;
  g_ok : forall i t e, nth_error (thr s) i = Some t -> done_ok t = Some e -> In (GJust e) log;
  g_ent : forall e, nth_error (ents s) e = Some (true, true) -> In (GJust e) log;
  g_succ : forall l1 l2 i k e, log = l1 ++ GSucc i k e :: l2 -> In (GJust e) l2 /\ In (GAsk i k e) l2 }.

Lemma succ_push x log :
  (forall l1 l2 i k e, log = l1 ++ GSucc i k e :: l2 -> In (GJust e) l2 /\ In (GAsk i k e) l2) ->
  (forall i k e, x = GSucc i k e -> In (GJust e) log /\ In (GAsk i k e) log) ->
  forall l1 l2 i k e, x :: log = l1 ++ GSucc i k e :: l2 -> In (GJust e) l2 /\ In (GAsk i k e) l2.
Proof.
  intros P Hx l1 l2 i k e E. destruct l1 as [|y l1']; cbn in E; inversion E; subst.
  - apply Hx. reflexivity.
  - eapply P. reflexivity.
Qed.

(** Generic preservation: thread i is replaced by t', the entry table changes
    only by appending fresh entries or by publishing (true, ok) for an entry
    whose owner recorded its justification, the log only grows. *)
Lemma ginv_update s s' log log' i t t' :
  ginv s log -> dinv s' -> nth_error (thr s) i = Some t -> thr s' = upd i t' (thr s) ->
  (forall x, In x log -> In x log') ->
  (forall k e, asked t' = Some (k, e) -> In (GAsk i k e) log') ->
  (forall e, done_ok t' = Some e -> In (GJust e) log') ->
  (forall e, nth_error (ents s') e = Some (true, true) -> nth_error (ents s) e = Some (true, true) \/ In (GJust e) log') ->
  (forall l1 l2 i k e, log' = l1 ++ GSucc i k e :: l2 -> In (GJust e) l2 /\ In (GAsk i k e) l2) ->
  ginv s' log'.
Proof.
  intros [D A O En Su] D' Ht Hthr Hmono Ha Ho He Hs. constructor; try assumption.
  - intros j tj k e Hj Hk. rewrite Hthr in Hj. apply nth_error_upd_inv in Hj.
    destruct Hj as [[-> ->]|[_ Hj]]; [apply Ha; exact Hk|apply Hmono; eapply A; eassumption].
  - intros j tj e Hj Hk. rewrite Hthr in Hj. apply nth_error_upd_inv in Hj.
    destruct Hj as [[-> ->]|[_ Hj]]; [apply Ho; exact Hk|apply Hmono; eapply O; eassumption].
  - intros e H. destruct (He e H) as [H1|H1]; [apply Hmono; apply En; exact H1|exact H1].
Qed.

Lemma ginv_keep s s' log i t t' :
  ginv s log -> dinv s' -> nth_error (thr s) i = Some t -> thr s' = upd i t' (thr s) -> ents s' = ents s ->
  (asked t' = None \/ asked t' = asked t) -> (done_ok t' = None \/ done_ok t' = done_ok t) -> ginv s' log.
Proof.
  intros G D' Ht Hthr He Ha Ho.
  eapply ginv_update with (i := i); [exact G|exact D'|exact Ht|exact Hthr|auto| | |rewrite He; auto|exact (g_succ _ _ G)].
  - intros k e Hk. destruct Ha as [Ha|Ha]; rewrite Ha in Hk; [discriminate|]. eapply (g_ask _ _ G); eassumption.
  - intros e Hk. destruct Ho as [Ho|Ho]; rewrite Ho in Hk; [discriminate|]. eapply (g_ok _ _ G); eassumption.
Qed.

Lemma gstep_inv s e s' log : ginv s log -> step MDedup s e = Some s' -> ginv s' (gstep s e ++ log).
Proof.
  intros G H. pose proof (dedup_step_inv s e s' (g_d _ _ G) H) as D'.
  pose proof G as [D A O En Su].
  destruct e as [i|i f|i|dt|i alt]; cbn [step gstep] in *.
  -
    destruct (nth_error (thr s) i) as [t|] eqn:Ht; [|discriminate].
    destruct (tpc t) eqn:Hp; try discriminate. injection H as <-.
    apply (ginv_keep s _ log i t _ G D' Ht eq_refl eq_refl); left; unfold asked, done_ok; cbn [tpc]; destruct (todo t); reflexivity.
  - (* backend call returns *)
    destruct (nth_error (thr s) i) as [t|] eqn:Ht; [|discriminate].
    pose proof (d_rest _ D _ _ Ht) as R. unfold single_rest in R.
    destruct (tpc t) eqn:Hp; try discriminate.
    +
      assert (Hask : In (GAsk i k e) log) by (eapply A; [exact Ht|unfold asked; rewrite Hp; reflexivity]).
      destruct (f =? 0) eqn:Ef; cbn [negb andb] in *.
      * destruct (memn k (snk s)) eqn:Ms; injection H as <-.
        -- eapply ginv_update with (i := i); [exact G|exact D'|exact Ht|reflexivity|intros; right; assumption| | |cbn [ents set_pc set_thr]; auto|].
           ++ intros k0 e0 Hk. inversion Hk; subst. right. exact Hask.
           ++ intros e0 Hk. inversion Hk; subst. left. reflexivity.
           ++ apply succ_push; [exact Su|discriminate].
        -- destruct (thr_begin_base_dedup i t k e s) as [TB _].
           apply (ginv_keep s _ log i t _ G D' Ht TB eq_refl); [right; unfold asked; rewrite Hp; reflexivity|left; reflexivity].
      * injection H as <-.
        apply (ginv_keep s _ log i t _ G D' Ht eq_refl eq_refl);
          [right; unfold asked; rewrite Hp; reflexivity|left; unfold done_ok; cbn [tpc]; rewrite Ef; reflexivity].
    +
      injection H as <-.
      apply (ginv_keep s _ log i t _ G D' Ht eq_refl eq_refl); [right; unfold asked; rewrite Hp; reflexivity|left; reflexivity].
    +
      subst rest.
      assert (Hask : In (GAsk i d e) log) by (eapply A; [exact Ht|unfold asked; rewrite Hp; reflexivity]).
      destruct ((if negb (f =? 0) then f else b) =? 0) eqn:Ec; injection H as <-.
      * eapply ginv_update with (i := i); [exact G|exact D'|exact Ht|reflexivity|intros; right; assumption| | |cbn; auto|].
        -- intros k0 e0 Hk. inversion Hk; subst. right. exact Hask.
        -- intros e0 Hk. inversion Hk; subst. left. reflexivity.
        -- apply succ_push; [exact Su|discriminate].
      * apply (ginv_keep s _ log i t _ G D' Ht eq_refl eq_refl);
          [right; unfold asked; rewrite Hp; reflexivity|left; unfold done_ok; cbn [tpc]; rewrite Ec; reflexivity].
  -
    destruct (nth_error (thr s) i) as [t|] eqn:Ht; [|discriminate].
    destruct (cancelled t); [discriminate|]. injection H as <-.
    apply (ginv_keep s _ log i t _ G D' Ht eq_refl eq_refl); right; reflexivity.
  -
    injection H as <-. constructor; auto.
  - destruct (nth_error (thr s) i) as [t|] eqn:Ht; [|discriminate].
    assert (NA : asked (next_after_key t) = None /\ done_ok (next_after_key t) = None).
    { unfold next_after_key, asked, done_ok. destruct (todo t) as [|? [|? ?]]; cbn; auto. }
    destruct NA as [NA NO].
    destruct (tpc t) eqn:Hp; destruct alt; try discriminate; try (destruct (cancelled t); discriminate).
    + (* Idle: lookup / register *)
      destruct (todo t) as [|k rest] eqn:Htd; [discriminate|].
      destruct (lookup_key k (inflight s)) as [e0|] eqn:L; injection H as <-.
      * eapply ginv_update with (i := i); [exact G|exact D'|exact Ht|reflexivity|intros; right; assumption| | |cbn; auto|].
        -- intros k0 e1 Hk. inversion Hk; subst. left. reflexivity.
        -- intros e1 Hk. discriminate.
        -- apply succ_push; [exact Su|discriminate].
      * eapply ginv_update with (i := i); [exact G|exact D'|exact Ht|reflexivity|intros; right; assumption| | | |].
        -- intros k0 e1 Hk. inversion Hk; subst. left. reflexivity.
        -- intros e1 Hk. discriminate.
        -- cbn [ents]. intros e1 H1. left.
           destruct (Nat.lt_ge_cases e1 (length (ents s))) as [Hl|Hl].
           ++ rewrite nth_error_app1 in H1 by exact Hl. exact H1.
           ++ rewrite nth_error_app2 in H1 by exact Hl. destruct (e1 - length (ents s))%nat as [|[|?]]; cbn in H1; discriminate.
        -- apply succ_push; [exact Su|discriminate].
    + (* Wait, cancelled *)
      destruct (cancelled t); [|discriminate]. injection H as <-.
      apply (ginv_keep s _ log i t _ G D' Ht eq_refl eq_refl); left; reflexivity.
    + (* Wait, woken *)
      assert (Hask : In (GAsk i k e) log) by (eapply A; [exact Ht|unfold asked; rewrite Hp; reflexivity]).
      destruct (nth_error (ents s) e) as [[[] []]|] eqn:Ee; try discriminate; injection H as <-.
      * eapply ginv_update with (i := i); [exact G|exact D'|exact Ht|reflexivity|intros; right; assumption| | |cbn; auto|].
        -- intros k0 e0 Hk. rewrite NA in Hk. discriminate.
        -- intros e0 Hk. rewrite NO in Hk. discriminate.
        -- apply succ_push; [exact Su|]. intros i0 k0 e0 E. inversion E; subst. split; [apply En; exact Ee|exact Hask].
      * apply (ginv_keep s _ log i t _ G D' Ht eq_refl eq_refl); left; reflexivity.
    +
      injection H as <-.
      apply (ginv_keep s _ log i t _ G D' Ht eq_refl eq_refl); right; unfold asked, done_ok; rewrite Hp; reflexivity.
    + (* Close: publish the outcome *)
      assert (Hask : In (GAsk i k e) log) by (eapply A; [exact Ht|unfold asked; rewrite Hp; reflexivity]).
      assert (Hent : forall v e1, nth_error (upd e (true, v) (ents s)) e1 = Some (true, true) ->
                     nth_error (ents s) e1 = Some (true, true) \/ (e1 = e /\ v = true)).
      { intros v e1 H1. apply nth_error_upd_inv in H1. destruct H1 as [[-> E]|[_ H1]]; [right|left; exact H1].
        inversion E. auto. }
      destruct (c =? 0) eqn:Ec; injection H as <-.
      * assert (Hj : In (GJust e) log) by (eapply O; [exact Ht|unfold done_ok; rewrite Hp, Ec; reflexivity]).
        eapply ginv_update with (i := i); [exact G|exact D'|exact Ht|reflexivity|intros; right; assumption| | | |].
        -- intros k0 e0 Hk. rewrite NA in Hk. discriminate.
        -- intros e0 Hk. rewrite NO in Hk. discriminate.
        -- cbn [ents set_thr set_ent]. intros e1 H1. destruct (Hent _ _ H1) as [H2|[-> _]]; [left; exact H2|right; right; exact Hj].
        -- apply succ_push; [exact Su|]. intros i0 k0 e0 E. inversion E; subst. split; assumption.
      * eapply ginv_update with (i := i); [exact G|exact D'|exact Ht|reflexivity|auto| | | |exact Su].
        -- intros k0 e0 Hk. discriminate.
        -- intros e0 Hk. discriminate.
        -- cbn [ents set_pc set_thr set_ent]. intros e1 H1. destruct (Hent _ _ H1) as [H2|[_ X]]; [left; exact H2|discriminate].
    + (* WaitTok, cancelled (not reachable in this mode, but a defined step) *)
      destruct (cancelled t); [|discriminate]. injection H as <-.
      apply (ginv_keep s _ log i t _ G D' Ht eq_refl eq_refl); left; reflexivity.
Qed.

Lemma grun_inv tr : forall s log s' log', ginv s log -> grun s tr log = Some (s', log') -> ginv s' log'.
Proof.
  induction tr as [|e r IH]; intros s log s' log' G H; cbn in H.
  - inversion H; subst. exact G.
  - destruct (step MDedup s e) as [s1|] eqn:E; [|discriminate]. eapply IH; [|exact H]. apply gstep_inv; assumption.
Qed.

Lemma ginv_init sets source sink : ginv (init_state sets source sink) [].
Proof.
  assert (H : forall i t, nth_error (map init_thread sets) i = Some t -> tpc t = NotStarted).
  { intros i t Hi. apply nth_error_init in Hi. destruct Hi as [ds ->]. reflexivity. }
  constructor.
  - apply dinv_init.
  - intros i t k e Hi Ha. unfold asked in Ha. cbn in Hi. rewrite (H _ _ Hi) in Ha. discriminate.
  - intros i t e Hi Ha. unfold done_ok in Ha. cbn in Hi. rewrite (H _ _ Hi) in Ha. discriminate.
  - intros e He. cbn in He. destruct e; discriminate.
  - intros [|? ?] l2 i k e E; discriminate.
Qed.

(** Every success reported to a caller i for key k rests on an in-flight entry
    e such that, earlier in the trace, (1) caller i asked for k and found or
    created e, and (2) e's owner saw the sink report k present or completed
    the copy.  [ask_registered] adds that e was registered under k in the
    in-flight map at the moment of (1). *)
Theorem dedup_success_justified sets source sink tr s log :
  grun (init_state sets source sink) tr [] = Some (s, log) ->
  forall l1 l2 i k e, log = l1 ++ GSucc i k e :: l2 -> In (GJust e) l2 /\ In (GAsk i k e) l2.
Proof. intros H. exact (g_succ _ _ (grun_inv tr _ _ _ _ (ginv_init sets source sink) H)). Qed.

Theorem ask_registered s ev s' i k e :
  step MDedup s ev = Some s' -> In (GAsk i k e) (gstep s ev) -> lookup_key k (inflight s') = Some e.
Proof.
  intros H Hin. destruct ev as [j|j f|j|dt|j alt]; cbn [gstep] in Hin; try contradiction.
  - destruct (nth_error (thr s) j) as [t|] eqn:Ht; [|contradiction].
    destruct (tpc t); try contradiction.
    + destruct ((f =? 0) && memn k0 (snk s)); [destruct Hin as [X|[]]; discriminate|contradiction].
    + destruct rest; [|contradiction]. destruct (_ =? 0); [destruct Hin as [X|[]]; discriminate|contradiction].
  - destruct alt; [contradiction|]. cbn [step] in H.
    destruct (nth_error (thr s) j) as [t|] eqn:Ht; [|contradiction].
    destruct (tpc t) eqn:Hp; try contradiction.
    + destruct (todo t) as [|k0 rest]; [contradiction|]. destruct Hin as [X|[]]. inversion X; subst.
      destruct (lookup_key k (inflight s)) as [e0|] eqn:L; inversion H; subst; cbn [inflight set_pc set_thr lookup_key].
      * exact L.
      * rewrite Nat.eqb_refl. reflexivity.
    + destruct (nth_error (ents s) e0) as [[[] []]|]; try contradiction. destruct Hin as [X|[]]; discriminate.
    + destruct (c =? 0); [destruct Hin as [X|[]]; discriminate|contradiction].
Qed.

(** * Concurrency-limiting replicator: semaphore accounting, hence never more than k concurrent copies *)
Local Open Scope nat_scope.
Definition holder (t : thread) : bool :=
  match tpc t with Get _ _ _ | Put _ _ _ _ | Granted => true | _ => false end.
Lemma copies_le_holders l : count in_copy l <= count holder l.
Proof. apply count_le_in. intros x _. unfold in_copy, holder. destruct (tpc x); auto. Qed.

Lemma copies_lt_holders l i t : nth_error l i = Some t -> tpc t = Granted -> count in_copy l + 1 <= count holder l.
Proof.
  intros Hi Hp. set (x := mkthr (Done 0) (todo t) (cancelled t) (bset t)).
  pose proof (count_upd in_copy i x l t Hi) as A. pose proof (count_upd holder i x l t Hi) as B.
  pose proof (copies_le_holders (upd i x l)) as L.
  assert (It : in_copy t = false) by (unfold in_copy; rewrite Hp; reflexivity).
  assert (Ht : holder t = true) by (unfold holder; rewrite Hp; reflexivity).
  change (in_copy x) with false in A. change (holder x) with false in B. rewrite It in A. rewrite Ht in B. cbn [b2n] in A, B. lia.
Qed.

Definition waits (s : cstate) (j : nat) : Prop :=
  exists tj, nth_error (thr s) j = Some tj /\ tpc tj = WaitSem.

(* Under [MLimit] no caller is at a program counter of the other two decorators. *)
Definition lim_pc (t : thread) : bool :=
  match tpc t with Wait _ _ | Fm _ _ | Unreg _ _ _ | Close _ _ _ | WaitTok => false | _ => true end.

Record pre (lim : nat) (s : cstate) : Prop := mkpre {
  p_cnt : count holder (thr s) = cur s;
  p_nd : NoDup (semq s);
  p_q : forall j, In j (semq s) <-> waits s j;
  p_le : cur s <= lim;
  p_pc : Forall (fun t => lim_pc t = true) (thr s) }.

Definition linv (lim : nat) (s : cstate) : Prop := pre lim s /\ (semq s <> [] -> lim <= cur s).

Lemma NoDup_snoc {T} (l : list T) x : NoDup l -> ~ In x l -> NoDup (l ++ [x]).
Proof.
  induction l as [|h t IH]; intros N Hn; cbn.
  - constructor; [intros []|constructor].
  - inversion N; subst. constructor.
    + rewrite in_app_iff. cbn. intros [H|[H|[]]]; [tauto|subst; apply Hn; left; reflexivity].
    + apply IH; [assumption|]. intros H. apply Hn. right. exact H.
Qed.

Lemma waits_upd s s' i t x j : nth_error (thr s) i = Some t -> thr s' = upd i x (thr s) ->
  (waits s' j <-> (j = i /\ tpc x = WaitSem) \/ (j <> i /\ waits s j)).
Proof.
  intros Hi Hthr. unfold waits. rewrite Hthr. split.
  - intros (tj & Hj & Hw). apply nth_error_upd_inv in Hj. destruct Hj as [[-> ->]|[Hn Hj]].
    + left. split; [reflexivity|exact Hw].
    + right. split; [exact Hn|]. exists tj. split; assumption.
  - intros [[-> Hw]|[Hn (tj & Hj & Hw)]].
    + exists x. split; [eapply nth_error_upd_eq; exact Hi|exact Hw].
    + exists tj. split; [|exact Hw]. rewrite nth_error_upd_neq by congruence. exact Hj.
Qed.

Lemma pre_upd lim s s' i t x :
  pre lim s -> nth_error (thr s) i = Some t -> thr s' = upd i x (thr s) -> lim_pc x = true ->
  cur s' + b2n (holder t) = cur s + b2n (holder x) -> cur s' <= lim ->
  ( (semq s' = semq s /\ (tpc t = WaitSem <-> tpc x = WaitSem))
    \/ (semq s' = semq s ++ [i] /\ tpc t <> WaitSem /\ tpc x = WaitSem)
    \/ (semq s' = remove_nat i (semq s) /\ tpc x <> WaitSem) ) ->
  pre lim s'.
Proof.
  intros [C N Q Le Pc] Hi Hthr Hx Hcur Hle Hq.
  assert (Wi : waits s i <-> tpc t = WaitSem).
  { unfold waits. split; [intros (tj & Hj & Hw); congruence|intros Hw; exists t; split; assumption]. }
  constructor.
  - rewrite Hthr. pose proof (count_upd holder i x (thr s) t Hi) as K. lia.
  - destruct Hq as [[E _]|[[E [Hn _]]|[E _]]]; rewrite E.
    + exact N.
    + apply NoDup_snoc; [exact N|]. rewrite Q, Wi. exact Hn.
    + apply remove_nat_nodup, N.
  - intros j. rewrite (waits_upd s s' i t x j Hi Hthr).
    destruct Hq as [[E Hw]|[[E [Hn Hw]]|[E Hw]]]; rewrite E.
    + rewrite Q. destruct (Nat.eq_dec j i) as [->|Hne]; [rewrite Wi; tauto|tauto].
    + rewrite in_app_iff, Q. cbn [In]. destruct (Nat.eq_dec j i) as [->|Hne]; [tauto|].
      split; [intros [H|[H|[]]]; [tauto|congruence]|intros [[H _]|[_ H]]; [congruence|tauto]].
    + rewrite remove_nat_in, Q. tauto.
  - exact Hle.
  - rewrite Hthr. apply Forall_upd; assumption.
Qed.

Lemma notify_linv lim : forall fuel s, pre lim s -> length (semq s) < fuel -> linv lim (notify fuel lim s).
Proof.
  induction fuel as [|f IH]; intros s P Hf; [lia|]. cbn [notify].
  destruct (semq s) as [|j q'] eqn:Eq.
  - split; [exact P|]. rewrite Eq. intros H. congruence.
  - destruct (Nat.ltb (cur s) lim) eqn:E.
    + apply Nat.ltb_lt in E.
      assert (Wj : waits s j) by (apply (p_q _ _ P); rewrite Eq; left; reflexivity).
      destruct Wj as (tj & Hj & Hw). rewrite Hj.
      assert (Nq : ~ In j q') by (pose proof (p_nd _ _ P) as N; rewrite Eq in N; inversion N; assumption).
      apply IH; [|cbn [semq]; cbn [length] in Hf; lia].
      eapply (pre_upd lim s _ j tj (mkthr Granted (todo tj) (cancelled tj) (bset tj)) P Hj); cbn [thr cur semq]; [reflexivity|reflexivity| | |].
      * unfold holder at 1 2. cbn [tpc]. rewrite Hw. cbn [b2n]. lia.
      * lia.
      * right. right. split; [|cbn [tpc]; discriminate].
        rewrite Eq. cbn [remove_nat]. rewrite Nat.eqb_refl. symmetry. apply remove_nat_notin, Nq.
    + apply Nat.ltb_ge in E. split; [exact P|]. intros _. exact E.
Qed.

(** Thread i goes from t to x; permits in use and the FIFO do not change. *)
Lemma linv_plain lim s s' i t x :
  linv lim s -> nth_error (thr s) i = Some t -> thr s' = upd i x (thr s) -> cur s' = cur s -> semq s' = semq s ->
  holder x = holder t -> (tpc t = WaitSem <-> tpc x = WaitSem) -> lim_pc x = true -> linv lim s'.
Proof.
  intros [P R] Hi Hthr Hc Hq Hh Hw Hx. split.
  - eapply (pre_upd lim s s' i t x P Hi Hthr Hx); [rewrite Hc, Hh; reflexivity|rewrite Hc; apply (p_le _ _ P)|left; split; assumption].
  - rewrite Hq, Hc. exact R.
Qed.

(** Caller i, not queued, ends up without a permit and becomes x. *)
Lemma linv_release lim s s0 i t x :
  pre lim s -> nth_error (thr s) i = Some t -> tpc t <> WaitSem -> thr s0 = upd i x (thr s) ->
  holder x = false -> tpc x <> WaitSem -> lim_pc x = true ->
  cur s0 + b2n (holder t) = cur s + 1 -> cur s0 <= lim -> semq s0 = semq s ->
  linv lim (sem_release lim s0).
Proof.
  intros P Hi Hw E1 Hx Hxw Hpc E2 Le E3. unfold sem_release. apply notify_linv; [|cbn [semq]; lia].
  pose proof (p_cnt _ _ P) as C. pose proof (count_upd holder i x (thr s) t Hi) as K. rewrite Hx in *. cbn [b2n] in *.
  eapply (pre_upd lim s _ i t x P Hi); cbn [thr cur semq]; [exact E1|exact Hpc|rewrite Hx; cbn [b2n]; lia|lia|].
  left. split; [exact E3|tauto].
Qed.

Lemma linv_finish lim s s0 i t e d c :
  pre lim s -> nth_error (thr s) i = Some t -> holder t = true ->
  thr s0 = thr s -> cur s0 = cur s -> semq s0 = semq s ->
  linv lim (finish_base (MLimit lim) i t e d c s0).
Proof.
  intros P Hi Hh E1 E2 E3. cbn [finish_base].
  eapply (linv_release lim s _ i t (mkthr (Done c) (todo t) (cancelled t) None) P Hi); cbn [thr cur semq set_thr tpc];
    [intros W; unfold holder in Hh; rewrite W in Hh; discriminate|rewrite E1; reflexivity|reflexivity|discriminate|reflexivity
    |rewrite Hh, E2; reflexivity|rewrite E2; apply (p_le _ _ P)|exact E3].
Qed.

Lemma linv_same lim s s' : linv lim s -> thr s' = thr s -> cur s' = cur s -> semq s' = semq s -> linv lim s'.
Proof.
  intros [[C N Q Le Pc] R] E1 E2 E3. split; [constructor|]; rewrite ?E1, ?E2, ?E3; try assumption.
  intros j. rewrite (Q j). unfold waits. rewrite E1. tauto.
Qed.

Lemma length_remove_nat d l : length (remove_nat d l) <= length l.
Proof. induction l as [|h t IH]; cbn; [lia|]. destruct (Nat.eqb d h); cbn; lia. Qed.

(** Caller i, not queued, enters the base replicator with a permit. *)
Lemma linv_begin lim s s0 i t ds :
  pre lim s -> nth_error (thr s) i = Some t -> tpc t <> WaitSem ->
  thr s0 = thr s -> semq s0 = semq s -> cur s0 + b2n (holder t) = cur s + 1 -> cur s0 <= lim ->
  (semq s <> [] -> lim <= cur s0) ->
  linv lim (begin_base (MLimit lim) i t ds 0 0 s0).
Proof.
  intros P Hi Hw E1 E3 E2 Le R. unfold begin_base. destruct ds as [|d rest].
  - cbn [finish_base].
    eapply (linv_release lim s _ i t (mkthr (Done 0) (todo t) (cancelled t) None) P Hi Hw);
      cbn [thr cur semq set_thr note_max todo cancelled tpc]; rewrite ?E1, ?upd_upd;
      [reflexivity|reflexivity|discriminate|reflexivity|exact E2|exact Le|exact E3].
  - set (x := mkthr (Get d rest 0) (todo t) (cancelled t) (Some (d :: rest))).
    split.
    + eapply (pre_upd lim s _ i t x P Hi); cbn [thr cur semq set_thr note_max todo cancelled]; rewrite ?E1, ?E3, ?upd_upd; [reflexivity|reflexivity| |exact Le|].
      * assert (Hx : holder x = true) by reflexivity. rewrite Hx. cbn [b2n]. lia.
      * left. split; [reflexivity|]. split; [intros W; contradiction|cbn [x tpc]; discriminate].
    + cbn [thr cur semq set_thr note_max todo cancelled]. rewrite E3. exact R.
Qed.

Ltac plain I i t Ht Hp :=
  eapply (linv_plain _ _ _ i t _ I Ht); cbn [thr cur semq set_pc set_thr set_ent];
  [reflexivity|reflexivity|reflexivity
  |unfold holder; cbn [tpc]; rewrite Hp; reflexivity
  |rewrite Hp; cbn [tpc]; split; intros X; discriminate X
  |reflexivity].

Local Opaque notify.
Lemma limit_step_inv lim s e s' : linv lim s -> step (MLimit lim) s e = Some s' -> linv lim s'.
Proof.
  intros I H. pose proof I as [P R].
  assert (Pc : forall i t, nth_error (thr s) i = Some t -> lim_pc t = true).
  { intros i t Ht. exact (proj1 (Forall_forall _ _) (p_pc _ _ P) t (nth_error_In _ _ Ht)). }
  destruct e as [i|i f|i|dt|i alt]; cbn [step] in H.
  - destruct (nth_error (thr s) i) as [t|] eqn:Ht; [|discriminate].
    destruct (tpc t) eqn:Hp; try discriminate. injection H as <-. plain I i t Ht Hp.
  - destruct (nth_error (thr s) i) as [t|] eqn:Ht; [|discriminate].
    destruct (tpc t) eqn:Hp; try discriminate.
    + injection H as <-. plain I i t Ht Hp.
    + assert (Hh : holder t = true) by (unfold holder; rewrite Hp; reflexivity).
      destruct ((if negb (f =? 0)%Z then f else b) =? 0)%Z.
      * destruct rest as [|d' rest']; injection H as <-.
        -- apply (linv_finish lim s _ i t e d 0%Z P Ht Hh); reflexivity.
        -- plain I i t Ht Hp.
      * injection H as <-. apply (linv_finish lim s _ i t e d _ P Ht Hh); reflexivity.
  - destruct (nth_error (thr s) i) as [t|] eqn:Ht; [|discriminate].
    destruct (cancelled t); [discriminate|]. injection H as <-.
    eapply (linv_plain _ _ _ i t _ I Ht); cbn [thr cur semq set_thr];
      [reflexivity|reflexivity|reflexivity|reflexivity|cbn [tpc]; tauto|exact (Pc i t Ht)].
  - injection H as <-. apply (linv_same lim s _ I); reflexivity.
  - (* ETau: the program counters of the other decorators are excluded by [p_pc] *)
    destruct (nth_error (thr s) i) as [t|] eqn:Ht; [|discriminate].
    pose proof (Pc i t Ht) as Lt. unfold lim_pc in Lt.
    destruct (tpc t) eqn:Hp; try discriminate Lt; destruct alt; try discriminate.
    +
      assert (Hnw : tpc t <> WaitSem) by (rewrite Hp; discriminate).
      assert (Hh : holder t = false) by (unfold holder; rewrite Hp; reflexivity).
      destruct (cancelled t).
      * injection H as <-. plain I i t Ht Hp.
      * destruct (Nat.ltb (cur s) lim && match semq s with [] => true | _ => false end) eqn:E.
        -- injection H as <-. apply andb_prop in E. destruct E as [E1 E2]. apply Nat.ltb_lt in E1.
           apply (linv_begin lim s _ i t (todo t) P Ht Hnw); cbn [thr cur semq]; [reflexivity|reflexivity|rewrite Hh; cbn [b2n]; lia|lia|].
           destruct (semq s); [intros X; contradiction|discriminate].
        -- injection H as <-. split.
           ++ eapply (pre_upd lim s _ i t _ P Ht); cbn [thr cur semq set_pc set_thr]; [reflexivity|reflexivity| |apply (p_le _ _ P)|].
              ** rewrite Hh. reflexivity.
              ** right. left. split; [reflexivity|]. split; [exact Hnw|reflexivity].
           ++ cbn [cur semq set_pc set_thr]. intros _. apply andb_false_iff in E. destruct E as [E|E].
              ** apply Nat.ltb_ge in E. exact E.
              ** apply R. destruct (semq s); [discriminate|discriminate].
    + (* WaitSem, cancelled *)
      destruct (cancelled t); [|discriminate]. injection H as <-.
      apply notify_linv.
      * eapply (pre_upd lim s _ i t _ P Ht); cbn [thr cur semq set_pc set_thr]; [reflexivity|reflexivity| |apply (p_le _ _ P)|].
        -- unfold holder. cbn [tpc]. rewrite Hp. reflexivity.
        -- right. right. split; [reflexivity|cbn [tpc]; discriminate].
      * cbn [semq]. pose proof (length_remove_nat i (semq s)). lia.
    +
      assert (Hh : holder t = true) by (unfold holder; rewrite Hp; reflexivity).
      assert (Hnw : tpc t <> WaitSem) by (rewrite Hp; discriminate).
      destruct (cancelled t).
      * injection H as <-.
        eapply (linv_release lim s _ i t _ P Ht Hnw); cbn [thr cur semq set_pc set_thr];
          [reflexivity|reflexivity|cbn [tpc]; discriminate|reflexivity|rewrite Hh; reflexivity|apply (p_le _ _ P)|reflexivity].
      * injection H as <-.
        apply (linv_begin lim s _ i t (todo t) P Ht Hnw); [reflexivity|reflexivity|rewrite Hh; cbn [b2n]; lia|apply (p_le _ _ P)|exact R].
Qed.
Local Transparent notify.

Lemma linv_init lim sets source sink : linv lim (init_state sets source sink).
Proof.
  split; [constructor|]; cbn [init_state thr cur semq].
  - apply count_init. reflexivity.
  - constructor.
  - intros j. split; [intros []|]. intros (tj & Hj & Hw). apply nth_error_init in Hj. destruct Hj as [ds ->]. discriminate.
  - lia.
  - apply Forall_forall. intros t Ht. apply in_map_iff in Ht. destruct Ht as (ds & <- & _). reflexivity.
  - intros H. congruence.
Qed.

Theorem limit_accounting lim sets source sink tr s :
  run (MLimit lim) (init_state sets source sink) tr = Some s -> linv lim s.
Proof.
  intros H. eapply (run_inv (MLimit lim) (linv lim)); [|apply linv_init|exact H].
  intros; eapply limit_step_inv; eassumption.
Qed.

Theorem limit_at_most_k_copies lim sets source sink tr s :
  run (MLimit lim) (init_state sets source sink) tr = Some s -> (copies s <= lim)%nat.
Proof.
  intros H. destruct (limit_accounting _ _ _ _ _ _ H) as [P _].
  unfold copies. fold (count in_copy (thr s)). rewrite <- (p_le _ _ P), <- (p_cnt _ _ P). apply copies_le_holders.
Qed.
