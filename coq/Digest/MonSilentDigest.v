(** C20: model-level facts needed to show that the monitor of Run/R20.v is
    silent on the model's output (Run/R20Proofs.v): NewInstanceName decides the
    specification's test, and an instance name string it accepts is a valid instance name. *)
From Coq Require Import List NArith ZArith Bool Lia.
From BBS Require Import Generated.Consts Digest.DigestModel Digest.DigestProofs.
Import ListNotations.
Open Scope N_scope.

Lemma get_digest_function_err e n c : get_digest_function e n = Err c -> c = InvalidArgument.
Proof. unfold get_digest_function. destruct (get_bare_function e n); [discriminate|intros [= <-]; reflexivity]. Qed.

Lemma fields_aux_cur_nonempty s : forall cur, cur <> [] -> fields_aux cur s <> [].
Proof.
  induction s as [|c r IH]; intros cur H; cbn [fields_aux].
  - rewrite nonempty_true by exact H. discriminate.
  - destruct (c =? slash); [rewrite nonempty_true by exact H; discriminate|apply IH; discriminate].
Qed.

Lemma join_fields s : forall cur,
  contains [slash; slash] s = false ->
  (cur = [] -> has_prefix [slash] s = false) ->
  (forall s', s <> s' ++ [slash]) ->
  join_slash (fields_aux cur s) = rev cur ++ s.
Proof.
  induction s as [|c r IH]; intros cur Hc Hp He; cbn [fields_aux].
  - destruct cur as [|x cur']; cbn [nonempty]; [reflexivity|]. cbn [join_slash]. rewrite app_nil_r. reflexivity.
  - assert (He' : forall s', r <> s' ++ [slash]).
    { intros s' E. apply (He (c :: s')). rewrite E. reflexivity. }
    cbn [contains] in Hc. apply orb_false_iff in Hc. destruct Hc as [Hpp Hc].
    destruct (N.eqb_spec c slash) as [->|Hne].
    + destruct cur as [|x cur'].
      { specialize (Hp eq_refl). cbn in Hp. discriminate. }
      cbn [nonempty].
      destruct r as [|c2 r2]; [exfalso; apply (He []); reflexivity|].
      assert (Hc2 : c2 =? slash = false).
      { destruct (N.eqb_spec c2 slash) as [->|]; [|reflexivity]. cbn in Hpp. discriminate. }
      rewrite join_cons.
      * rewrite (IH [] Hc); [reflexivity| |exact He'].
        intros _. cbn [has_prefix]. rewrite N.eqb_sym, Hc2. reflexivity.
      * cbn [fields_aux]. rewrite Hc2. apply fields_aux_cur_nonempty. discriminate.
    + rewrite (IH (c :: cur) Hc); [|discriminate|exact He'].
      cbn [rev]. rewrite <- app_assoc. reflexivity.
Qed.

Lemma has_suffix_slash_false s : has_suffix [slash] s = false -> forall s', s <> s' ++ [slash].
Proof.
  intros H s' E. subst. unfold has_suffix in H. rewrite rev_app_distr in H. cbn in H.
  discriminate.
Qed.

Lemma new_instance_name_cases v :
  let ok := negb (has_prefix [slash] v) && negb (has_suffix [slash] v) && negb (contains [slash; slash] v)
            && forallb (fun c => negb (memb c c20_reserved)) (fields_by_slash v) in
  (ok = true /\ new_instance_name v = Ok v /\ valid_instance v /\ join_slash (fields_by_slash v) = v
   /\ validate_components (fields_by_slash v) = Ok tt)
  \/ (ok = false /\ new_instance_name v = Err InvalidArgument).
Proof.
  cbv zeta. rewrite new_instance_name_eq. destruct (_ && _) eqn:C; [left|right; auto].
  apply andb_true_iff in C as [C Hr]. apply andb_true_iff in C as [C Hc]. apply andb_true_iff in C as [Hp Hs].
  apply negb_true_iff in Hp, Hs, Hc.
  assert (Hj : join_slash (fields_by_slash v) = v).
  { unfold fields_by_slash. rewrite (join_fields v [] Hc (fun _ => Hp) (has_suffix_slash_false v Hs)). reflexivity. }
  pose proof (fields_good v) as G.
  repeat split; try assumption.
  - exists (fields_by_slash v). split; [symmetry; exact Hj|].
    rewrite forallb_forall in Hr. rewrite Forall_forall in *.
    intros x Hx. destruct (G x Hx) as [A B]. repeat split; [exact A|exact B|apply not_memb_iff, Hr, Hx].
  - rewrite (validate_components_eq _ (fields_nonempty v)), Hr. reflexivity.
Qed.
