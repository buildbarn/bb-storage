(** C20 — the pkg/digest model: table checks, constructed digests and their keys,
    varints, totality, rejection and soundness of the parsers, ancestors. *)
From Coq Require Import Decimal DecimalN DecimalPos.
From Coq Require Import List NArith ZArith Bool Lia.
From BBS Require Import Generated.Consts Digest.DigestModel.
Import ListNotations.
Open Scope N_scope.

Lemma beqb_eq a b : beqb a b = true <-> a = b.
Proof.
  revert b; induction a as [|x a IH]; destruct b as [|y b]; cbn; try (split; congruence).
  rewrite andb_true_iff, N.eqb_eq, IH. split; [intros [-> ->]; reflexivity|intros [= -> ->]; auto].
Qed.
Lemma beqb_refl a : beqb a a = true.
Proof. apply beqb_eq; reflexivity. Qed.
Lemma beqb_neq a b : beqb a b = false <-> a <> b.
Proof. rewrite <- beqb_eq. destruct (beqb a b); split; congruence. Qed.

Lemma bltb_irrefl a : bltb a a = false.
Proof. induction a as [|x a IH]; cbn; [reflexivity|]. rewrite N.ltb_irrefl, N.eqb_refl. exact IH. Qed.
Lemma bltb_cons x a y b : bltb (x :: a) (y :: b) = true <-> x < y \/ x = y /\ bltb a b = true.
Proof.
  cbn [bltb]. destruct (N.ltb_spec x y) as [L|L]; [split; auto|]. apply N.le_ngt in L.
  destruct (N.eqb_spec x y) as [E|E]; [tauto|]. split; [discriminate|tauto].
Qed.
Lemma bltb_trans a b c : bltb a b = true -> bltb b c = true -> bltb a c = true.
Proof.
  revert b c; induction a as [|x a IH]; intros [|y b] [|z c]; try discriminate; try reflexivity.
  intros H1 H2. apply bltb_cons in H1, H2. apply bltb_cons.
  destruct H1 as [L1|[-> B1]], H2 as [L2|[-> B2]]; eauto using N.lt_trans.
Qed.
Lemma bltb_total a b : bltb a b = false -> beqb a b = false -> bltb b a = true.
Proof.
  revert b; induction a as [|x a IH]; intros [|y b]; cbn; try congruence.
  destruct (N.ltb_spec x y) as [L|L]; [discriminate|].
  destruct (N.eqb_spec x y) as [->|Ne]; [rewrite N.ltb_irrefl, N.eqb_refl; apply IH|].
  intros _ _. replace (y <? x) with true; [reflexivity|]. symmetry. apply N.ltb_lt. lia.
Qed.
Lemma bltb_asym a b : bltb a b = true -> bltb b a = false.
Proof.
  intro H. destruct (bltb b a) eqn:E; [|reflexivity].
  pose proof (bltb_trans _ _ _ H E) as T. rewrite bltb_irrefl in T. discriminate.
Qed.
Lemma bltb_neq a b : bltb a b = true -> a <> b.
Proof. intros H ->. rewrite bltb_irrefl in H. discriminate. Qed.

Lemma memb_In x l : memb x l = true <-> In x l.
Proof.
  unfold memb. rewrite existsb_exists. split.
  - intros [y [Hy E]]. apply beqb_eq in E. subst. exact Hy.
  - intro H. exists x. split; [exact H|apply beqb_refl].
Qed.

Lemma not_memb_iff x l : negb (memb x l) = true <-> ~ In x l.
Proof. rewrite negb_true_iff, <- not_true_iff_false, memb_In. reflexivity. Qed.

Lemma horner_acc d p : horner (N.pos p) (uint_bytes d) = N.pos (Pos.of_uint_acc d p).
Proof.
  revert p; induction d; intro p; cbn [uint_bytes horner Pos.of_uint_acc]; try reflexivity;
    rewrite <- IHd; f_equal; lia.
Qed.
Lemma horner_uint d : horner 0 (uint_bytes d) = Pos.of_uint d.
Proof.
  induction d; cbn [uint_bytes horner Pos.of_uint]; try reflexivity;
    try (rewrite <- horner_acc; f_equal; lia).
  exact IHd.
Qed.
Lemma horner_dec n : horner 0 (dec n) = n.
Proof. unfold dec. rewrite horner_uint. apply DecimalN.Unsigned.of_to. Qed.

Lemma uint_bytes_digits d : forallb is_digit (uint_bytes d) = true.
Proof. induction d; cbn; auto. Qed.
Lemma dec_digits n : forallb is_digit (dec n) = true.
Proof. apply uint_bytes_digits. Qed.
Lemma dec_nonempty n : dec n <> [].
Proof.
  unfold dec. destruct n as [|p]; cbn; [discriminate|].
  pose proof (DecimalPos.Unsigned.to_uint_nonnil p) as H.
  destruct (Pos.to_uint p); cbn; congruence.
Qed.

Lemma horner_ge ds a : a <= horner a ds.
Proof.
  revert a; induction ds as [|c r IH]; intro a; cbn; [lia|].
  specialize (IH (a * 10 + (c - 48))). lia.
Qed.

Lemma is_digit_range c : is_digit c = true <-> 48 <= c <= 57.
Proof. unfold is_digit. rewrite andb_true_iff, !N.leb_le. tauto. Qed.

Lemma byte_sub_digit c : is_digit c = true -> byte_sub c 48 = c - 48.
Proof.
  intro H. apply is_digit_range in H. unfold byte_sub.
  replace (c + 256 - 48) with (c - 48 + 1 * 256) by lia.
  rewrite N.mod_add by lia. apply N.mod_small. lia.
Qed.

Lemma wrap64_small z : (- 2 ^ 63 <= z < 2 ^ 63)%Z -> wrap64 z = z.
Proof. intro H. unfold wrap64. rewrite Z.mod_small; lia. Qed.

Lemma digit_not_sign c : is_digit c = true -> (c =? 43) = false /\ (c =? dash) = false.
Proof. intro H. apply is_digit_range in H. unfold dash. split; apply N.eqb_neq; lia. Qed.

Definition ptail (neg : bool) (ds : bytes) : option Z :=
  match ds with
  | [] => None
  | _ => if forallb is_digit ds then
           let v := horner 0 ds in
           if neg then (if v <=? 2 ^ 63 then Some (- Z.of_N v)%Z else None)
           else (if v <? 2 ^ 63 then Some (Z.of_N v) else None)
         else None
  end.
Lemma parse_int_cons c r :
  parse_int (c :: r) = if c =? 43 then ptail false r else if c =? dash then ptail true r else ptail false (c :: r).
Proof. unfold parse_int, ptail. destruct (c =? 43); [reflexivity|]. destruct (c =? dash); reflexivity. Qed.

Lemma parse_int_digits ds :
  ds <> [] -> forallb is_digit ds = true ->
  parse_int ds = if horner 0 ds <? 2 ^ 63 then Some (Z.of_N (horner 0 ds)) else None.
Proof.
  destruct ds as [|c r]; [congruence|]. intros _ Hd. rewrite parse_int_cons.
  destruct (digit_not_sign c) as [-> ->]; [cbn in Hd; apply andb_true_iff in Hd; tauto|].
  unfold ptail. rewrite Hd. reflexivity.
Qed.

Lemma ptail_non_digit neg ds : forallb is_digit ds = false -> ptail neg ds = None.
Proof. intro H. unfold ptail. rewrite H. destruct ds; reflexivity. Qed.

Lemma ptail_range neg ds z : ptail neg ds = Some z -> (- 2 ^ 63 <= z < 2 ^ 63)%Z.
Proof.
  assert ((2 ^ 63)%Z = Z.of_N (2 ^ 63)) as E by reflexivity. rewrite E.
  unfold ptail. destruct ds as [|d ds']; [discriminate|].
  destruct (forallb is_digit (d :: ds')); [|discriminate]. cbv zeta.
  assert (HB : 0 < 2 ^ 63) by reflexivity. revert HB. generalize (horner 0 (d :: ds')) (2 ^ 63). intros v B HB.
  destruct neg.
  - destruct (N.leb_spec v B); [|discriminate]. intros [= <-]. lia.
  - destruct (N.ltb_spec v B); [|discriminate]. intros [= <-]. lia.
Qed.
Lemma parse_int_range s z : parse_int s = Some z -> (- 2 ^ 63 <= z < 2 ^ 63)%Z.
Proof.
  destruct s as [|c r]; [discriminate|]. rewrite parse_int_cons.
  destruct (c =? 43); [apply ptail_range|]. destruct (c =? dash); apply ptail_range.
Qed.

Lemma scan_dash_app h rest i :
  forallb (fun c => negb (c =? dash)) h = true ->
  scan_dash (h ++ dash :: rest) i = Ok (i + length h)%nat.
Proof.
  revert i; induction h as [|c h IH]; intros i H; cbn.
  - f_equal. lia.
  - cbn in H. apply andb_true_iff in H as [Hc Hh]. apply negb_true_iff in Hc. rewrite Hc.
    rewrite IH by exact Hh. f_equal. lia.
Qed.

Lemma scan_size_app ds rest i a :
  forallb is_digit ds = true -> horner a ds < 2 ^ 63 ->
  scan_size (ds ++ dash :: rest) i (Z.of_N a) = Ok (Z.of_N (horner a ds), (i + length ds)%nat).
Proof.
  revert i a; induction ds as [|c r IH]; intros i a Hd Hb; cbn.
  - do 2 f_equal. lia.
  - cbn in Hd. apply andb_true_iff in Hd as [Hc Hr].
    rewrite (proj2 (digit_not_sign c Hc)), byte_sub_digit by exact Hc. cbn [horner] in Hb.
    pose proof (horner_ge r (a * 10 + (c - 48))) as Hge.
    rewrite wrap64_small.
    + replace (Z.of_N a * 10 + Z.of_N (c - 48))%Z with (Z.of_N (a * 10 + (c - 48))) by lia.
      rewrite IH by assumption. do 2 f_equal. lia.
    + assert ((2 ^ 63)%Z = Z.of_N (2 ^ 63)) as EZ by reflexivity. rewrite EZ.
      revert Hb. generalize (2 ^ 63). intros B Hb. lia.
Qed.

(** the digits of the function enum at the front of the packed string *)
Definition fnb_check (fb : bytes) (fn : N) : bool :=
  match fb with
  | [a] => is_digit a && (fn =? a - 48)
  | [a; b] => is_digit a && is_digit b && (fn =? (a - 48) * 10 + (b - 48))
  | _ => false
  end.

Lemma forallb_not_in {T} (p : T -> bool) c s : forallb p s = true -> p c = false -> ~ In c s.
Proof. intros H Hc K. rewrite forallb_forall in H. rewrite (H c K) in Hc. discriminate. Qed.

Lemma lowerhex_not_dash h :
  forallb lowerhex h = true -> forallb (fun c => negb (c =? dash)) h = true.
Proof.
  intro H. apply forallb_forall. intros c Hc. apply negb_true_iff, N.eqb_neq. intros ->.
  exact (forallb_not_in _ dash h H eq_refl Hc).
Qed.

Lemma skipn_app_le {T} n (l r : list T) : (n <= length l)%nat -> skipn n (l ++ r) = skipn n l ++ r.
Proof. intro H. rewrite skipn_app. replace (n - length l)%nat with 0%nat by lia. reflexivity. Qed.

Lemma snoc_app (a : bytes) x b : a ++ x :: b = (a ++ [x]) ++ b.
Proof. rewrite <- app_assoc. reflexivity. Qed.

Lemma forallb_skipn {T} (f : T -> bool) n l : forallb f l = true -> forallb f (skipn n l) = true.
Proof.
  intro H. rewrite forallb_forall in *. intros x Hx. apply H.
  rewrite <- (firstn_skipn n l). apply in_or_app. right. exact Hx.
Qed.

Lemma scan_dash_packed pre hash rest :
  (length pre <= 32 <= length pre + length hash)%nat -> forallb lowerhex hash = true ->
  scan_dash (skipn 32 (pre ++ hash ++ dash :: rest)) 32 = Ok (length pre + length hash)%nat.
Proof.
  intros Hl Hhex. rewrite skipn_app, (skipn_all2 pre), skipn_app_le by lia. cbn [app].
  rewrite scan_dash_app by (apply forallb_skipn, lowerhex_not_dash, Hhex).
  rewrite skipn_length. f_equal. lia.
Qed.

Lemma scan_size_packed pre sb inst :
  forallb is_digit sb = true -> horner 0 sb < 2 ^ 63 ->
  scan_size (skipn (S (length pre)) (pre ++ dash :: sb ++ dash :: inst)) (S (length pre)) 0
  = Ok (Z.of_N (horner 0 sb), (S (length pre) + length sb)%nat).
Proof.
  intros Hd Hb. change (pre ++ dash :: sb ++ dash :: inst) with (pre ++ [dash] ++ sb ++ dash :: inst).
  rewrite app_assoc, skipn_app_le, skipn_all2 by (rewrite app_length; cbn [length]; lia).
  apply (scan_size_app sb inst _ 0 Hd Hb).
Qed.

Lemma unpack_head fb fn rest :
  fnb_check fb fn = true ->
  exists c0 c1, nth_byte (fb ++ dash :: rest) 0 = Ok c0 /\ nth_byte (fb ++ dash :: rest) 1 = Ok c1 /\
    (if c1 =? dash then (byte_sub c0 48, 2%nat) else (byte_sub c0 48 * 10 + byte_sub c1 48, 3%nat))
    = (fn, length (fb ++ [dash])) /\ (length (fb ++ [dash]) <= 32)%nat.
Proof.
  destruct fb as [|a [|b [|? ?]]]; cbn [fnb_check]; try discriminate; intro H.
  - apply andb_true_iff in H as [Ha Hfn]. apply N.eqb_eq in Hfn. exists a, dash.
    rewrite N.eqb_refl, byte_sub_digit, Hfn by exact Ha. cbn. repeat split; lia || reflexivity.
  - apply andb_true_iff in H as [Hab Hfn]. apply andb_true_iff in Hab as [Ha Hb]. apply N.eqb_eq in Hfn.
    exists a, b. rewrite (proj2 (digit_not_sign b Hb)), !byte_sub_digit, Hfn by assumption. cbn. repeat split; lia || reflexivity.
Qed.

Lemma unpack_shape fb fn hash sb inst :
  fnb_check fb fn = true ->
  (N.to_nat c20_shortest_hash_string_size <= length hash)%nat ->
  forallb lowerhex hash = true ->
  forallb is_digit sb = true -> horner 0 sb < 2 ^ 63 ->
  unpack (fb ++ dash :: hash ++ dash :: sb ++ dash :: inst) =
  Ok {| u_fn := fn; u_hs := S (length fb); u_he := (S (length fb) + length hash)%nat;
        u_size := Z.of_N (horner 0 sb);
        u_se := (S (length fb) + length hash + 1 + length sb)%nat |}.
Proof.
  intros Hfb Hlen Hhex Hdig Hb.
  change (N.to_nat c20_shortest_hash_string_size) with 32%nat in Hlen.
  destruct (unpack_head fb fn (hash ++ dash :: sb ++ dash :: inst) Hfb) as (c0 & c1 & E0 & E1 & Efn & Hl).
  unfold unpack. rewrite E0, E1. cbn [bind]. rewrite Efn.
  change (N.to_nat c20_shortest_hash_string_size) with 32%nat. rewrite (snoc_app fb dash).
  rewrite scan_dash_packed by (lia || exact Hhex). cbn [bind].
  rewrite (app_assoc _ hash), <- app_length, scan_size_packed by assumption. cbn [bind].
  rewrite !app_length. cbn [length]. do 2 f_equal; lia.
Qed.

(** * Facts about the literal tables *)
Definition table_entry_ok (p : N * bytes) : bool :=
  let fn := fst p in
  fnb_check (dec fn) fn && negb (fn =? c20_enum_unknown) && (fn <? 256)
  && match assoc fn c20_bare_by_enum with
     | Some (e, hb) => (e =? fn) && (c20_shortest_hash_string_size <=? 2 * hb)
     | None => false
     end.
Lemma tables_ok : forallb table_entry_ok c20_supported = true.
Proof. vm_compute. reflexivity. Qed.

Lemma supported_entry fn : In fn supported_enums -> exists n, In (fn, n) c20_supported.
Proof.
  unfold supported_enums. rewrite in_map_iff. intros [[f n] [E H]]. cbn in E. subst. eauto.
Qed.

Lemma supported_facts fn :
  In fn supported_enums ->
  fnb_check (dec fn) fn = true /\ fn <> c20_enum_unknown /\ fn < 256 /\
  exists hb, assoc fn c20_bare_by_enum = Some (fn, hb) /\ c20_shortest_hash_string_size <= 2 * hb.
Proof.
  intro H. destruct (supported_entry _ H) as [n Hn].
  pose proof tables_ok as T. rewrite forallb_forall in T. specialize (T _ Hn).
  unfold table_entry_ok in T. cbn [fst] in T.
  destruct (assoc fn c20_bare_by_enum) as [[e hb]|]; [|rewrite andb_false_r in T; discriminate].
  rewrite !andb_true_iff in T. destruct T as [[[T1 T2] T3] [T4 T5]].
  apply negb_true_iff, N.eqb_neq in T2. apply N.ltb_lt in T3.
  apply N.eqb_eq in T4. apply N.leb_le in T5. subst e.
  repeat split; try assumption. exists hb. split; [reflexivity|assumption].
Qed.

Lemma valid_bare d :
  valid_digest d ->
  exists hb, get_bare_function (d_fn d) 0 = Some (d_fn d, hb)
             /\ N.of_nat (length (d_hash d)) = 2 * hb
             /\ (N.to_nat c20_shortest_hash_string_size <= length (d_hash d))%nat.
Proof.
  intros [Hfn [hb [Hhb Hlen]] _ _ _].
  destruct (supported_facts _ Hfn) as [_ [Hu [_ [hb' [Ha Hs]]]]].
  unfold hash_bytes_of in Hhb. rewrite Ha in Hhb. cbn in Hhb. injection Hhb as <-.
  exists hb'. unfold get_bare_function.
  apply N.eqb_neq in Hu. rewrite Hu. repeat split; [exact Ha|exact Hlen|lia].
Qed.

Lemma slice_mid (a b c : bytes) : slice (a ++ b ++ c) (length a) (length a + length b) = Ok b.
Proof.
  unfold slice. rewrite !app_length.
  replace ((length a <=? length a + length b)%nat) with true by (symmetry; apply Nat.leb_le; lia).
  replace ((length a + length b <=? length a + (length b + length c))%nat) with true
    by (symmetry; apply Nat.leb_le; lia).
  cbn [andb]. rewrite skipn_app_le by lia. rewrite skipn_all. cbn [app].
  replace (length a + length b - length a)%nat with (length b + 0)%nat by lia.
  rewrite firstn_app_2. cbn. rewrite app_nil_r. reflexivity.
Qed.
Lemma slice_prefix (a b : bytes) : slice (a ++ b) 0 (length a) = Ok a.
Proof. exact (slice_mid [] a b). Qed.
Lemma slice_from_app (a b : bytes) : slice_from (a ++ b) (length a) = Ok b.
Proof. unfold slice_from. rewrite app_length, <- (app_nil_r b) at 1. apply slice_mid. Qed.

Lemma slice_after a x b c : slice (a ++ x :: b ++ c) (S (length a)) (S (length a) + length b) = Ok b.
Proof. rewrite <- (last_length a x), snoc_app. apply slice_mid. Qed.
Lemma slice_from_after a x b : slice_from (a ++ x :: b) (S (length a)) = Ok b.
Proof. rewrite <- (last_length a x), snoc_app. apply slice_from_app. Qed.
Lemma slice_upto a x b : slice (a ++ x :: b) 0 (S (length a)) = Ok (a ++ [x]).
Proof. rewrite <- (last_length a x), snoc_app. apply slice_prefix. Qed.

Lemma format_int_nonneg z : (0 <= z)%Z -> format_int z = dec (Z.to_N z).
Proof. intro H. unfold format_int. destruct (Z.ltb_spec z 0); [lia|reflexivity]. Qed.

(** the key without instance name *)
Definition key0 (d : digest) : bytes := dec (d_fn d) ++ dash :: d_hash d ++ dash :: dec (Z.to_N (d_size d)).

Lemma pack_shape d : (0 <= d_size d)%Z -> pack d = key0 d ++ dash :: d_inst d.
Proof.
  intro H. unfold pack, pack_raw, key0. rewrite format_int_nonneg by exact H.
  rewrite <- !app_assoc. cbn [app]. rewrite <- !app_assoc. reflexivity.
Qed.

Lemma unpack_pack d :
  valid_digest d ->
  unpack (pack d) =
  Ok {| u_fn := d_fn d; u_hs := S (length (dec (d_fn d)));
        u_he := (S (length (dec (d_fn d))) + length (d_hash d))%nat;
        u_size := d_size d;
        u_se := length (key0 d) |}.
Proof.
  intro V. destruct (valid_bare d V) as [hb [_ [_ Hlen]]].
  destruct V as [Hfn _ Hhex Hsz _].
  destruct (supported_facts _ Hfn) as [Hfb _].
  unfold pack, pack_raw. rewrite format_int_nonneg by lia.
  rewrite (unpack_shape _ (d_fn d)); try assumption.
  - rewrite horner_dec. rewrite Z2N.id by lia. do 2 f_equal.
    unfold key0. rewrite !app_length. cbn [length]. rewrite !app_length. cbn [length]. lia.
  - apply dec_digits.
  - rewrite horner_dec.
    assert ((2 ^ 63)%Z = Z.of_N (2 ^ 63)) as E by reflexivity. lia.
Qed.

Lemma hexdigit_hexval c : lowerhex c = true -> exists x, hexval c = Some x /\ x < 16 /\ hexdigit x = c.
Proof.
  unfold lowerhex, hexval, hexdigit. intro H.
  destruct ((48 <=? c) && (c <=? 57)) eqn:E1.
  - apply andb_true_iff in E1 as [A B]. apply N.leb_le in A, B.
    exists (c - 48). repeat split; [lia|].
    destruct (N.ltb_spec (c - 48) 10); lia.
  - cbn in H. rewrite H. apply andb_true_iff in H as [A B]. apply N.leb_le in A, B.
    exists (c - 87). repeat split; [lia|].
    destruct (N.ltb_spec (c - 87) 10); lia.
Qed.

Lemma hex_decode_encode n : forall h,
  length h = (2 * n)%nat -> forallb lowerhex h = true ->
  exists b, hex_decode h = Some b /\ hex_encode b = h /\ length b = n.
Proof.
  induction n as [|n IH]; intros h Hl Hh.
  - destruct h; [|discriminate]. exists []. auto.
  - destruct h as [|a [|b h]]; try (cbn in Hl; lia).
    cbn in Hh. apply andb_true_iff in Hh as [Ha Hh]. apply andb_true_iff in Hh as [Hb Hh].
    destruct (IH h) as [t [Ht [Et Lt]]]; [cbn in Hl; lia|exact Hh|].
    destruct (hexdigit_hexval a Ha) as [x [Hx [Lx Dx]]].
    destruct (hexdigit_hexval b Hb) as [y [Hy [Ly Dy]]].
    exists (x * 16 + y :: t). cbn [hex_decode]. rewrite Hx, Hy, Ht. split; [reflexivity|].
    split; [|cbn; lia]. cbn [hex_encode].
    replace ((x * 16 + y) / 16) with x by (rewrite N.div_add_l by lia; rewrite N.div_small by lia; lia).
    replace ((x * 16 + y) mod 16) with y
      by (rewrite N.add_comm, N.mod_add by lia; rewrite N.mod_small by lia; reflexivity).
    rewrite Dx, Dy, Et. reflexivity.
Qed.

(** * Constructed digests: accessors return the fields (no panic), proto round trip, keys *)
Lemma pack_slices d :
  valid_digest d ->
  slice (pack d) (S (length (dec (d_fn d)))) (S (length (dec (d_fn d))) + length (d_hash d)) = Ok (d_hash d) /\
  slice_from (pack d) (S (length (key0 d))) = Ok (d_inst d) /\
  slice (pack d) 0 (length (key0 d)) = Ok (key0 d).
Proof.
  intro V. pose proof (vd_size d V) as Hsz. split; [|split].
  - apply slice_after.
  - rewrite pack_shape by lia. apply slice_from_after.
  - rewrite pack_shape by lia. apply slice_prefix.
Qed.

Theorem pack_unpack_accessors d :
  valid_digest d ->
  get_function_enum (pack d) = Ok (d_fn d) /\
  get_hash_string (pack d) = Ok (d_hash d) /\
  get_size_bytes (pack d) = Ok (d_size d) /\
  get_instance_name (pack d) = Ok (d_inst d) /\
  get_proto (pack d) = Ok (d_hash d, d_size d) /\
  get_key (pack d) 1 = Ok (pack d) /\
  get_key (pack d) 0 = Ok (key0 d) /\
  (exists b, get_hash_bytes (pack d) = Ok b /\ hex_encode b = d_hash d) /\
  (exists b, get_compact_binary (pack d) = Ok (d_fn d :: b ++ put_varint (d_size d))
             /\ hex_encode b = d_hash d /\ N.of_nat (length b) * 2 = N.of_nat (length (d_hash d))).
Proof.
  intro V. pose proof (unpack_pack d V) as U.
  destruct (valid_bare d V) as [hb [Hbare [Hlen _]]].
  destruct (supported_facts _ (vd_fn d V)) as [_ [_ [H256 _]]].
  destruct (pack_slices d V) as (Hhash & Hinst & Hkey).
  destruct (hex_decode_encode (N.to_nat hb) (d_hash d)) as [b [Hdec [Henc Lb]]]; [lia|exact (vd_hex d V)|].
  unfold get_function_enum, get_hash_string, get_size_bytes, get_instance_name, get_proto, get_key,
    get_hash_bytes, get_compact_binary, get_hash_string.
  rewrite U. cbn [bind u_fn u_hs u_he u_size u_se Z.eqb].
  rewrite Hbare, Hhash, Hinst, Hkey. cbn [bind fst]. rewrite Hdec.
  repeat split; try reflexivity.
  - exists b. split; [reflexivity|exact Henc].
  - exists b. rewrite N.mod_small by exact H256. repeat split; [exact Henc|lia].
Qed.

Lemma new_digest_eq inst f h s :
  new_digest inst f h s =
  if (N.of_nat (length h) =? 2 * snd f) && forallb lowerhex h && (0 <=? s)%Z
  then Ok (pack_raw (fst f) h s inst) else Err InvalidArgument.
Proof.
  unfold new_digest. rewrite Z.leb_antisym.
  destruct (N.of_nat (length h) =? 2 * snd f), (forallb lowerhex h), (s <? 0)%Z; reflexivity.
Qed.

Lemma new_digest_valid d hb :
  valid_digest d -> get_bare_function (d_fn d) 0 = Some (d_fn d, hb) ->
  new_digest (d_inst d) (d_fn d, hb) (d_hash d) (d_size d) = Ok (pack d).
Proof.
  intros V Hb. destruct (valid_bare d V) as [hb' [Hb' [Hlen _]]].
  rewrite Hb in Hb'. injection Hb' as <-.
  rewrite new_digest_eq. cbn [fst snd]. rewrite Hlen, N.eqb_refl, (vd_hex d V).
  rewrite (proj2 (Z.leb_le _ _) (proj1 (vd_size d V))). reflexivity.
Qed.

Theorem proto_roundtrip_proof d :
  valid_digest d ->
  exists f, get_digest_function (d_fn d) 0 = Ok f /\
    exists h s, get_proto (pack d) = Ok (h, s) /\ new_digest (d_inst d) f h s = Ok (pack d).
Proof.
  intro V. destruct (valid_bare d V) as [hb [Hb _]].
  exists (d_fn d, hb). split; [unfold get_digest_function; rewrite Hb; reflexivity|].
  destruct (pack_unpack_accessors d V) as [_ [_ [_ [_ [Hp _]]]]].
  exists (d_hash d), (d_size d). split; [exact Hp|apply new_digest_valid; assumption].
Qed.

Lemma valid_instance_nil : valid_instance [].
Proof. exists []. split; [reflexivity|constructor]. Qed.

Lemma valid_with_instance d i : valid_digest d -> valid_instance i -> valid_digest (with_instance d i).
Proof. intros [A B C D _] Hi. constructor; cbn; assumption. Qed.

Lemma Ok_inj {T} (a b : T) : Ok a = Ok b -> a = b.
Proof. intros [= ->]. reflexivity. Qed.

Lemma pack_inj d1 d2 : valid_digest d1 -> valid_digest d2 -> pack d1 = pack d2 -> d1 = d2.
Proof.
  intros V1 V2 E.
  destruct (pack_unpack_accessors d1 V1) as [A1 [B1 [C1 [D1 _]]]].
  destruct (pack_unpack_accessors d2 V2) as [A2 [B2 [C2 [D2 _]]]].
  rewrite E in A1, B1, C1, D1.
  rewrite A2 in A1. rewrite B2 in B1. rewrite C2 in C1. rewrite D2 in D1.
  apply Ok_inj in A1, B1, C1, D1. destruct d1, d2; cbn in *; congruence.
Qed.

Lemma key0_inj d1 d2 :
  valid_digest d1 -> valid_digest d2 -> key0 d1 = key0 d2 ->
  d_fn d1 = d_fn d2 /\ d_hash d1 = d_hash d2 /\ d_size d1 = d_size d2.
Proof.
  intros V1 V2 E.
  assert (with_instance d1 [] = with_instance d2 []) as Q.
  { apply pack_inj; try (apply valid_with_instance; [assumption|apply valid_instance_nil]).
    rewrite !pack_shape by (cbn; apply (vd_size _ V1) || apply (vd_size _ V2)).
    unfold key0 in *. cbn [with_instance d_fn d_hash d_size d_inst]. rewrite E. reflexivity. }
  injection Q. auto.
Qed.

Theorem key_with_instance_eq_iff d1 d2 :
  valid_digest d1 -> valid_digest d2 ->
  (get_key (pack d1) 1 = get_key (pack d2) 1 <-> d1 = d2).
Proof.
  intros V1 V2. split; [|intros ->; reflexivity].
  intro E. apply pack_inj; [assumption|assumption|exact (Ok_inj _ _ E)].
Qed.

Theorem key_without_instance_eq_iff d1 d2 :
  valid_digest d1 -> valid_digest d2 ->
  (get_key (pack d1) 0 = get_key (pack d2) 0 <->
   d_fn d1 = d_fn d2 /\ d_hash d1 = d_hash d2 /\ d_size d1 = d_size d2).
Proof.
  intros V1 V2.
  destruct (pack_unpack_accessors d1 V1) as [_ [_ [_ [_ [_ [_ [K1 _]]]]]]].
  destruct (pack_unpack_accessors d2 V2) as [_ [_ [_ [_ [_ [_ [K2 _]]]]]]].
  rewrite K1, K2. split.
  - intro E. apply key0_inj; [assumption|assumption|exact (Ok_inj _ _ E)].
  - intros [A [B C]]. unfold key0. rewrite A, B, C. reflexivity.
Qed.

(** * Varint (binary.PutVarint / binary.ReadVarint) *)
Lemma read_put_uvarint k : forall u x s first tail,
  u < 2 ^ (7 * N.of_nat k - 6) -> (0 < k)%nat ->
  read_uvarint k first x s (put_uvarint k u ++ tail) = Ok (x + u * 2 ^ s, tail).
Proof.
  induction k as [|k IH]; intros u x s first tail Hu Hk; [lia|].
  cbn [put_uvarint read_uvarint].
  destruct (N.ltb_spec u 128) as [Hs|Hs].
  - cbn [app]. apply N.ltb_lt in Hs. rewrite Hs.
    destruct k as [|k'].
    + cbn in Hu. assert (1 <? u = false) as -> by (apply N.ltb_ge; lia). reflexivity.
    + reflexivity.
  - cbn [app].
    assert (u mod 128 < 128) as Hm by (apply N.mod_lt; lia).
    assert (u mod 128 + 128 <? 128 = false) as -> by (apply N.ltb_ge; apply N.le_add_l).
    destruct k as [|k'].
    + exfalso. cbn in Hu. lia.
    + rewrite IH.
      * f_equal. f_equal.
        replace ((u mod 128 + 128) mod 128) with (u mod 128)
          by (replace (u mod 128 + 128) with (u mod 128 + 1 * 128) by lia;
              rewrite N.mod_add by lia; rewrite N.mod_mod by lia; reflexivity).
        rewrite N.pow_add_r. change (2 ^ 7) with 128.
        rewrite (N.div_mod u 128) at 3 by discriminate. ring.
      * replace (7 * N.of_nat (S (S k')) - 6) with (7 + (7 * N.of_nat (S k') - 6)) in Hu by lia.
        rewrite N.pow_add_r in Hu. replace (2 ^ 7) with 128 in Hu by reflexivity.
        apply N.div_lt_upper_bound; lia.
      * lia.
Qed.

Lemma odd_half a : N.odd (2 * a + 1) = true /\ (2 * a + 1) / 2 = a /\ N.odd (2 * a) = false /\ (2 * a) / 2 = a.
Proof.
  repeat split.
  - apply N.odd_spec. exists a. reflexivity.
  - symmetry. apply N.div_unique with (r := 1); lia.
  - rewrite <- N.negb_even. apply negb_false_iff. apply N.even_spec. exists a. reflexivity.
  - symmetry. apply N.div_unique with (r := 0); lia.
Qed.

Lemma unzigzag_zigzag x : (- 2 ^ 63 <= x < 2 ^ 63)%Z -> unzigzag (zigzag x) = x /\ zigzag x < 2 ^ 64.
Proof.
  intro H. unfold zigzag, unzigzag.
  assert ((2 ^ 63)%Z = Z.of_N (2 ^ 63)) as E by reflexivity. rewrite E in H.
  assert (2 ^ 64 = 2 * 2 ^ 63) as E2 by reflexivity. rewrite E2.
  revert H. generalize (2 ^ 63). intros B H.
  destruct (Z.ltb_spec x 0).
  - assert (Z.to_N (- (2 * x) - 1) = 2 * Z.to_N (- x - 1) + 1) as -> by lia.
    destruct (odd_half (Z.to_N (- x - 1))) as [-> [-> _]]. split; lia.
  - assert (Z.to_N (2 * x) = 2 * Z.to_N x) as -> by lia.
    destruct (odd_half (Z.to_N x)) as [_ [_ [-> ->]]]. split; lia.
Qed.

Lemma read_put_varint x tail :
  (- 2 ^ 63 <= x < 2 ^ 63)%Z -> read_varint (put_varint x ++ tail) = Ok (x, tail).
Proof.
  intro H. destruct (unzigzag_zigzag x H) as [U B].
  unfold read_varint, put_varint. rewrite read_put_uvarint; [|exact B|lia].
  cbn [bind]. rewrite N.mul_1_r, N.add_0_l. rewrite U. reflexivity.
Qed.

Theorem compact_roundtrip_proof d tail :
  valid_digest d ->
  exists b, get_compact_binary (pack d) = Ok b /\
            new_digest_from_compact_binary (d_inst d) (b ++ tail) = Ok (pack d, tail).
Proof.
  intro V. destruct (pack_unpack_accessors d V) as [_ [_ [_ [_ [_ [_ [_ [_ [b [Hc [He Hl]]]]]]]]]]].
  destruct (valid_bare d V) as [hb [Hb [Hlen _]]].
  exists (d_fn d :: b ++ put_varint (d_size d)). split; [exact Hc|].
  cbn [app new_digest_from_compact_binary]. unfold get_digest_function. rewrite Hb. cbn [bind snd].
  assert (length b = N.to_nat hb) as Lb by lia.
  rewrite <- app_assoc.
  destruct (Nat.ltb_spec (length (b ++ put_varint (d_size d) ++ tail)) (N.to_nat hb)) as [C|C];
    [rewrite app_length in C; lia|].
  rewrite <- Lb. rewrite skipn_app_le by lia. rewrite skipn_all. cbn [app].
  rewrite read_put_varint by (pose proof (vd_size d V); lia). cbn [bind].
  rewrite firstn_app, firstn_all, Nat.sub_diag, firstn_O, app_nil_r, He. rewrite new_digest_valid by assumption. reflexivity.
Qed.

Definition slash_free (c : bytes) : Prop := ~ In slash c.
Definition good_field (c : bytes) : Prop := c <> [] /\ slash_free c.

Lemma slash_free_cons x c : slash_free (x :: c) -> (x =? slash) = false /\ slash_free c.
Proof. intro H. split; [apply N.eqb_neq; intro E; apply H; left; auto|intro K; apply H; right; exact K]. Qed.

Lemma fields_aux_app c : forall cur rest,
  slash_free c -> fields_aux cur (c ++ rest) = fields_aux (rev c ++ cur) rest.
Proof.
  induction c as [|x c IH]; intros cur rest H; [reflexivity|].
  cbn [app fields_aux]. destruct (slash_free_cons _ _ H) as [-> Hc].
  rewrite IH by exact Hc. cbn [rev]. rewrite <- app_assoc. reflexivity.
Qed.

Lemma nonempty_true {T} (l : list T) : l <> [] -> nonempty l = true.
Proof. destruct l; [congruence|reflexivity]. Qed.

Lemma join_cons x l : l <> [] -> join_slash (x :: l) = x ++ slash :: join_slash l.
Proof. destruct l; [congruence|reflexivity]. Qed.

Lemma join_app a b : a <> [] -> b <> [] -> join_slash (a ++ b) = join_slash a ++ slash :: join_slash b.
Proof.
  induction a as [|x a IH]; intros Ha Hb; [congruence|]. destruct a as [|y a'].
  - apply join_cons, Hb.
  - cbn [app] in *. rewrite !(join_cons x), IH, <- app_assoc by (assumption || discriminate). reflexivity.
Qed.

Lemma fields_join l :
  Forall good_field l -> fields_by_slash (join_slash l) = l.
Proof.
  unfold fields_by_slash. induction l as [|x r IH]; intro H; [reflexivity|].
  inversion H as [|? ? [Hne Hsf] Hr]; subst.
  assert (Hx : nonempty (rev x) = true).
  { apply nonempty_true. intro E. apply Hne. rewrite <- (rev_involutive x), E. reflexivity. }
  destruct r as [|y r'].
  - cbn [join_slash]. rewrite <- (app_nil_r x) at 1. rewrite fields_aux_app by exact Hsf.
    cbn [fields_aux]. rewrite app_nil_r, Hx, rev_involutive. reflexivity.
  - rewrite join_cons, fields_aux_app by (exact Hsf || discriminate). cbn [fields_aux].
    rewrite N.eqb_refl, app_nil_r, Hx, rev_involutive, IH by exact Hr. reflexivity.
Qed.

Lemma join_join comps rest :
  comps <> [] -> join_slash (join_slash comps :: rest) = join_slash (comps ++ rest).
Proof.
  intro H. destruct rest as [|z rest']; [rewrite app_nil_r; reflexivity|].
  rewrite join_cons, join_app by (assumption || discriminate). reflexivity.
Qed.

Lemma join_slash_nonempty comps :
  comps <> [] -> Forall (fun c => c <> []) comps -> join_slash comps <> [].
Proof.
  destruct comps as [|x r]; [congruence|]. intros _ H. inversion H; subst.
  destruct r; cbn; [assumption|]. destruct x; [congruence|discriminate].
Qed.

Lemma path_join_instance comps ps :
  Forall (fun c => c <> []) comps ->
  path_join (join_slash comps :: ps) = join_slash (comps ++ filter nonempty ps).
Proof.
  intro H. unfold path_join. cbn [filter].
  destruct comps as [|x r].
  - reflexivity.
  - rewrite nonempty_true by (apply join_slash_nonempty; [discriminate|exact H]).
    apply join_join. discriminate.
Qed.

Lemma valid_component_facts comps :
  Forall valid_component comps ->
  Forall (fun c => c <> []) comps /\ Forall good_field comps
  /\ Forall (fun c => memb c c20_reserved = false) comps.
Proof.
  intro H. repeat split; eapply Forall_impl; try exact H; intros c [A [B C]]; unfold good_field; auto.
  destruct (memb c c20_reserved) eqn:E; [|reflexivity]. apply memb_In in E. contradiction.
Qed.

Lemma validate_components_valid comps :
  Forall valid_component comps -> validate_components comps = Ok tt.
Proof.
  induction 1 as [|c r [A [B C]] Hr IH]; [reflexivity|]. cbn [validate_components].
  rewrite nonempty_true by exact A.
  destruct (memb c c20_reserved) eqn:E; [apply memb_In in E; contradiction|exact IH].
Qed.

Lemma nth_field_app_l (pre : list bytes) x post i :
  (i < length pre)%nat -> nth_field (pre ++ x :: post) i = Ok (nth i pre []).
Proof.
  intro H. unfold nth_field. rewrite nth_error_app1 by exact H.
  rewrite (nth_error_nth' pre [] H). reflexivity.
Qed.
Lemma nth_field_app_mid (pre : list bytes) x post : nth_field (pre ++ x :: post) (length pre) = Ok x.
Proof.
  unfold nth_field. rewrite nth_error_app2 by lia. rewrite Nat.sub_diag. reflexivity.
Qed.

Lemma find_split_app stop pre x post k : forall n i fuel,
  (forall c, In c pre -> stop c = false) -> stop x = true ->
  (length pre + k <= length (pre ++ x :: post))%nat ->
  (n = length pre - i)%nat -> (i <= length pre)%nat -> (n < fuel)%nat ->
  find_split stop (pre ++ x :: post) k i fuel = Ok (length pre).
Proof.
  induction n as [|n IH]; intros i fuel Hpre Hx Hlen Hn Hi Hf;
    (destruct fuel as [|fuel]; [lia|]); cbn [find_split].
  - assert (i = length pre) by lia. subst i. rewrite nth_field_app_mid. cbn [bind]. rewrite Hx. reflexivity.
  - rewrite nth_field_app_l by lia. cbn [bind].
    rewrite Hpre by (apply nth_In; lia).
    destruct (Nat.ltb_spec (length (pre ++ x :: post) - k) (S i)); [lia|].
    apply IH; try assumption; lia.
Qed.

Definition bare_eqb (a : option bare) (fn hb : N) : bool :=
  match a with Some (e, h) => (e =? fn) && (h =? hb) | None => false end.
Lemma bare_eqb_true a fn hb : bare_eqb a fn hb = true -> a = Some (fn, hb).
Proof.
  destruct a as [[e h]|]; cbn; [|discriminate]. rewrite andb_true_iff, !N.eqb_eq. intros [-> ->]. reflexivity.
Qed.

Definition no_slash (s : bytes) : bool := negb (existsb (N.eqb slash) s).
Lemma no_slash_free s : no_slash s = true -> slash_free s.
Proof.
  unfold no_slash, slash_free. intros H K. apply negb_true_iff in H.
  assert (existsb (N.eqb slash) s = true) as E by (apply existsb_exists; exists slash; split; [exact K|apply N.eqb_refl]).
  congruence.
Qed.

Lemma valid_component_intro c :
  nonempty c && no_slash c && negb (memb c c20_reserved) = true -> valid_component c.
Proof.
  intro H. apply andb_true_iff in H as [H Hr]. apply andb_true_iff in H as [Hn Hs].
  split; [destruct c; [discriminate|congruence]|]. split; [apply no_slash_free, Hs|apply not_memb_iff, Hr].
Qed.

Definition fn_entry_ok (p : N * bytes) : bool :=
  let fn := fst p in
  match assoc fn c20_bare_by_enum with
  | Some (_, hb) =>
      if c20_midfix_above <? fn then
        match assoc fn midfix_functions with
        | Some name => nonempty name && no_slash name && bare_eqb (function_by_name name) fn hb
        | None => false
        end
      else
        match assoc fn midfix_functions with
        | Some _ => false
        | None => bare_eqb (assoc (2 * hb) c20_bare_by_size) fn hb
        end
  | None => false
  end.
Lemma fn_tables_ok : forallb fn_entry_ok c20_supported = true.
Proof. vm_compute. reflexivity. Qed.
Lemma midfix_names_short :
  forallb (fun p => (length (snd p) <? N.to_nat c20_shortest_hash_string_size)%nat) midfix_functions = true.
Proof. vm_compute. reflexivity. Qed.

Definition compressor_entry_ok (p : N * bytes) : bool :=
  negb (fst p =? c20_compressor_identity)
  && match assoc (fst p) c20_compressors with Some n => beqb n (snd p) | None => false end
  && match assoc_name (snd p) c20_compressors with Some c => c =? fst p | None => false end
  && nonempty (snd p) && no_slash (snd p).
Lemma compressor_tables_ok : forallb compressor_entry_ok c20_compressors = true.
Proof. vm_compute. reflexivity. Qed.
Lemma keyword_facts :
  beqb c20_compressed_blobs c20_blobs = false /\
  nonempty c20_blobs = true /\ no_slash c20_blobs = true /\
  nonempty c20_compressed_blobs = true /\ no_slash c20_compressed_blobs = true /\
  nonempty c20_uploads = true /\ no_slash c20_uploads = true /\
  memb c20_blobs c20_reserved = true /\ memb c20_compressed_blobs c20_reserved = true /\
  memb c20_uploads c20_reserved = true.
Proof. vm_compute. repeat split; reflexivity. Qed.

Lemma assoc_name_short k (tbl : list (N * bytes)) n :
  forallb (fun p => (length (snd p) <? n)%nat) tbl = true -> (n <= length k)%nat ->
  assoc_name k tbl = None.
Proof.
  induction tbl as [|[v k'] r IH]; intros H L; [reflexivity|].
  cbn in H. apply andb_true_iff in H as [H1 H2]. apply Nat.ltb_lt in H1. cbn [assoc_name].
  destruct (beqb k k') eqn:E; [apply beqb_eq in E; subst; lia|]. apply IH; assumption.
Qed.

Lemma compressor_facts comp :
  In comp (map fst c20_compressors) ->
  exists name, compressor_midfix comp = [c20_compressed_blobs; name] /\
               compressor_by_name name = Some comp /\ name <> [] /\ slash_free name.
Proof.
  rewrite in_map_iff. intros [[c n] [E H]]. cbn in E. subst c.
  pose proof compressor_tables_ok as T. rewrite forallb_forall in T. specialize (T _ H).
  unfold compressor_entry_ok in T. cbn [fst snd] in T.
  rewrite !andb_true_iff in T. destruct T as [[[[T1 T2] T3] T4] T5].
  apply negb_true_iff in T1.
  destruct (assoc comp c20_compressors) as [n'|] eqn:A; [|discriminate]. apply beqb_eq in T2. subst n'.
  destruct (assoc_name n c20_compressors) as [c'|] eqn:B; [|discriminate]. apply N.eqb_eq in T3. subst c'.
  exists n. unfold compressor_midfix, compressor_by_name. rewrite T1, A, B.
  repeat split; [destruct n; [discriminate|congruence]|apply no_slash_free; exact T5].
Qed.

Lemma parse_int_dec n : n < 2 ^ 63 -> parse_int (dec n) = Some (Z.of_N n).
Proof.
  intro H. apply N.ltb_lt in H.
  rewrite parse_int_digits, horner_dec, H by (apply dec_nonempty || apply dec_digits). reflexivity.
Qed.

Definition formatted_tail (d : digest) (comp : N) : list bytes :=
  compressor_midfix comp ++ filter nonempty [function_midfix (d_fn d)]
  ++ [d_hash d; dec (Z.to_N (d_size d))].

Lemma parse_common_valid d comp comps :
  valid_digest d -> d_inst d = join_slash comps -> Forall valid_component comps ->
  valid_compressor comp ->
  parse_common comps (formatted_tail d comp) = Ok (pack d, comp).
Proof.
  intros V Hi Hc Hcomp. unfold parse_common, new_instance_name_from_components.
  rewrite validate_components_valid by exact Hc. cbn [bind]. rewrite <- Hi. unfold formatted_tail.
  (* what follows the compressor keyword is one continuation [k]; it is run once, on [comp] and the rest *)
  match goal with |- bind _ (fun t0 => bind _ ?F) = _ => set (k := F) end.
  assert (Hk : k (comp, filter nonempty [function_midfix (d_fn d)] ++ [d_hash d; dec (Z.to_N (d_size d))])
               = Ok (pack d, comp)).
  { unfold k. cbv beta iota. destruct (valid_bare d V) as [hb [Hbare [Hlen Hmin]]].
    destruct (supported_entry _ (vd_fn d V)) as [nm Hnm].
    pose proof fn_tables_ok as T. rewrite forallb_forall in T. specialize (T _ Hnm).
    unfold fn_entry_ok in T. cbn [fst] in T.
    assert (assoc (d_fn d) c20_bare_by_enum = Some (d_fn d, hb)) as Ha.
    { unfold get_bare_function in Hbare. destruct (d_fn d =? c20_enum_unknown) eqn:E; [|exact Hbare].
      destruct (supported_facts _ (vd_fn d V)) as [_ [Hu _]]. apply N.eqb_eq in E. contradiction. }
    rewrite Ha in T.
    assert (Hpi : parse_int (dec (Z.to_N (d_size d))) = Some (d_size d)).
    { pose proof (vd_size d V) as S. rewrite parse_int_dec.
      - rewrite Z2N.id by lia. reflexivity.
      - assert ((2 ^ 63)%Z = Z.of_N (2 ^ 63)) as E by reflexivity. lia. }
    unfold function_midfix.
    destruct (c20_midfix_above <? d_fn d).
    - destruct (assoc (d_fn d) midfix_functions) as [name|]; [|discriminate].
      rewrite !andb_true_iff in T. destruct T as [[T1 T2] T3]. apply bare_eqb_true in T3.
      cbn [filter]. rewrite T1. cbn [app nth_field nth_error bind]. rewrite T3.
      cbn [bind skipn length Nat.ltb Nat.leb nth_field nth_error]. rewrite Hpi.
      rewrite new_digest_valid by assumption. reflexivity.
    - destruct (assoc (d_fn d) midfix_functions) as [name|]; [discriminate|].
      apply bare_eqb_true in T. cbn [filter nonempty app nth_field nth_error bind].
      unfold function_by_name. rewrite (assoc_name_short _ _ _ midfix_names_short Hmin).
      unfold get_bare_function. rewrite N.eqb_refl, Hlen, T.
      cbn [bind length Nat.ltb Nat.leb nth_field nth_error]. rewrite Hpi.
      rewrite new_digest_valid by assumption. reflexivity. }
  clearbody k. destruct keyword_facts as [K1 _].
  destruct Hcomp as [E|Hcomp].
  - subst comp. unfold compressor_midfix. rewrite N.eqb_refl.
    cbn [app nth_field nth_error bind]. rewrite beqb_refl. cbn [bind skipn]. exact Hk.
  - destruct (compressor_facts comp Hcomp) as [name [-> [Hn _]]].
    cbn [app nth_field nth_error bind]. rewrite K1, beqb_refl. cbn [bind nth_field nth_error].
    rewrite Hn. cbn [bind skipn]. exact Hk.
Qed.

Lemma digits_slash_free s : forallb is_digit s = true -> slash_free s.
Proof. intro H. exact (forallb_not_in _ slash s H eq_refl). Qed.
Lemma lowerhex_slash_free s : forallb lowerhex s = true -> slash_free s.
Proof. intro H. exact (forallb_not_in _ slash s H eq_refl). Qed.

Lemma nonempty_neq {T} (l : list T) : nonempty l = true -> l <> [].
Proof. destruct l; [discriminate|congruence]. Qed.

Lemma filter_nonempty_good l : Forall good_field l -> filter nonempty l = l.
Proof.
  induction 1 as [|c l [Hc _] _ IH]; [reflexivity|]. cbn [filter]. rewrite (nonempty_true c Hc), IH. reflexivity.
Qed.

Lemma no_slash_good s : nonempty s = true -> no_slash s = true -> good_field s.
Proof. intros H1 H2. split; [apply nonempty_neq, H1|apply no_slash_free, H2]. Qed.

Lemma compressor_midfix_good comp :
  valid_compressor comp ->
  exists kw rest, compressor_midfix comp = kw :: rest /\ Forall good_field (kw :: rest)
                  /\ beqb kw c20_blobs || beqb kw c20_compressed_blobs = true.
Proof.
  destruct keyword_facts as [_ [B1 [B2 [C1 [C2 _]]]]]. intros [->|Hcomp].
  - exists c20_blobs, []. unfold compressor_midfix. rewrite N.eqb_refl, beqb_refl.
    split; [reflexivity|]. split; [|reflexivity]. constructor; [apply no_slash_good; assumption|constructor].
  - destruct (compressor_facts comp Hcomp) as [name [-> [_ [N1 N2]]]].
    exists c20_compressed_blobs, [name]. rewrite beqb_refl, orb_true_r.
    split; [reflexivity|]. split; [|reflexivity].
    constructor; [apply no_slash_good; assumption|]. constructor; [split; assumption|constructor].
Qed.

Lemma formatted_tail_facts d comp :
  valid_digest d -> valid_compressor comp ->
  Forall good_field (formatted_tail d comp) /\
  (exists x post, formatted_tail d comp = x :: post /\
                  (beqb x c20_blobs || beqb x c20_compressed_blobs) = true /\ (2 <= length post)%nat) /\
  filter nonempty (compressor_midfix comp ++ [function_midfix (d_fn d); d_hash d; format_int (d_size d)])
  = formatted_tail d comp.
Proof.
  intros V Hcomp. destruct (valid_bare d V) as [hb [Hbare [Hlen Hmin]]].
  assert (Hh : good_field (d_hash d)).
  { split; [|apply lowerhex_slash_free, (vd_hex d V)].
    change (N.to_nat c20_shortest_hash_string_size) with 32%nat in Hmin.
    destruct (d_hash d); [cbn in Hmin; lia|discriminate]. }
  assert (Hs : good_field (dec (Z.to_N (d_size d)))).
  { split; [apply dec_nonempty|apply digits_slash_free, dec_digits]. }
  assert (Hf : Forall good_field (filter nonempty [function_midfix (d_fn d)])).
  { destruct (supported_entry _ (vd_fn d V)) as [nm Hnm].
    pose proof fn_tables_ok as T. rewrite forallb_forall in T. specialize (T _ Hnm).
    unfold fn_entry_ok in T. cbn [fst] in T. unfold function_midfix.
    destruct (assoc (d_fn d) c20_bare_by_enum) as [[e h]|]; [|discriminate].
    destruct (c20_midfix_above <? d_fn d).
    - destruct (assoc (d_fn d) midfix_functions) as [name|]; [|discriminate].
      rewrite !andb_true_iff in T. destruct T as [[T1 T2] _]. cbn [filter]. rewrite T1.
      constructor; [apply no_slash_good; assumption|constructor].
    - destruct (assoc (d_fn d) midfix_functions); [discriminate|]. cbn. constructor. }
  assert (Hhs : Forall good_field [d_hash d; dec (Z.to_N (d_size d))]) by auto.
  rewrite format_int_nonneg by (pose proof (vd_size d V); lia).
  unfold formatted_tail.
  destruct (compressor_midfix_good comp Hcomp) as (kw & rest & -> & Gk & Hkw).
  split; [|split].
  - apply Forall_app. split; [exact Gk|]. apply Forall_app. split; assumption.
  - exists kw, (rest ++ filter nonempty [function_midfix (d_fn d)] ++ [d_hash d; dec (Z.to_N (d_size d))]).
    split; [reflexivity|]. split; [exact Hkw|]. rewrite !app_length. cbn [length]. lia.
  - change [function_midfix (d_fn d); d_hash d; dec (Z.to_N (d_size d))]
      with ([function_midfix (d_fn d)] ++ [d_hash d; dec (Z.to_N (d_size d))]).
    rewrite !filter_app. f_equal; [|f_equal]; apply filter_nonempty_good; assumption.
Qed.

Lemma not_reserved_not_keyword c :
  valid_component c ->
  beqb c c20_blobs = false /\ beqb c c20_compressed_blobs = false /\ beqb c c20_uploads = false.
Proof.
  intros [_ [_ H]]. destruct keyword_facts as [_ [_ [_ [_ [_ [_ [_ [R1 [R2 R3]]]]]]]]].
  apply memb_In in R1, R2, R3.
  repeat split; apply beqb_neq; intros ->; contradiction.
Qed.

Lemma get_paths_pack d uuid comp :
  valid_digest d ->
  let tail := compressor_midfix comp ++ [function_midfix (d_fn d); d_hash d; format_int (d_size d)] in
  get_read_path (pack d) comp = Ok (path_join ([d_inst d] ++ tail)) /\
  get_write_path (pack d) uuid comp = Ok (path_join ([d_inst d; c20_uploads; uuid] ++ tail)).
Proof.
  intro V. destruct (pack_slices d V) as (Hh & Hin & _).
  unfold get_read_path, get_write_path. rewrite (unpack_pack d V). cbn [bind u_hs u_he u_se u_fn u_size].
  rewrite Hin, Hh. split; reflexivity.
Qed.

Lemma parse_split_valid stop k (from : nat -> nat) comps x post d comp :
  valid_digest d -> d_inst d = join_slash comps -> Forall valid_component comps -> valid_compressor comp ->
  (forall c, In c comps -> stop c = false) -> stop x = true ->
  Forall good_field (x :: post) -> (k <= S (length post))%nat ->
  skipn (from (length comps)) (comps ++ x :: post) = formatted_tail d comp ->
  let fields := fields_by_slash (join_slash (comps ++ x :: post)) in
  (if (length fields <? k)%nat then Err InvalidArgument
   else sp <- find_split stop fields k 0 (S (length fields)) ;;
        parse_common (firstn sp fields) (skipn (from sp) fields)) = Ok (pack d, comp).
Proof.
  intros V Hi Hc Hcomp Hstop Hx Hgood Hk Hskip fields.
  destruct (valid_component_facts comps Hc) as [_ [Hgf _]].
  unfold fields. rewrite fields_join by (apply Forall_app; split; assumption).
  assert (Hl : length (comps ++ x :: post) = (length comps + S (length post))%nat) by apply app_length.
  destruct (Nat.ltb_spec (length (comps ++ x :: post)) k) as [L|L]; [lia|].
  rewrite (find_split_app stop comps x post k (length comps) 0 _ Hstop Hx) by lia.
  cbn [bind]. rewrite firstn_app, Nat.sub_diag, firstn_all, firstn_O, app_nil_r, Hskip.
  apply parse_common_valid; assumption.
Qed.

Theorem read_path_roundtrip_proof d comp :
  valid_digest d -> valid_compressor comp ->
  exists s, get_read_path (pack d) comp = Ok s /\ parse_read_path s = Ok (pack d, comp).
Proof.
  intros V Hcomp. destruct (vd_inst d V) as [comps [Hi Hc]].
  destruct (valid_component_facts comps Hc) as [Hne _].
  destruct (formatted_tail_facts d comp V Hcomp) as [Hgood [[x [post [Ht [Hx Hp]]]] Hfil]].
  exists (join_slash (comps ++ formatted_tail d comp)). split.
  - rewrite (proj1 (get_paths_pack d [] comp V)).
    f_equal. cbn [app]. rewrite Hi, path_join_instance by exact Hne. rewrite Hfil. reflexivity.
  - rewrite Ht in *. apply (parse_split_valid _ 3 (fun sp => sp) _ _ _ _ _ V Hi Hc Hcomp); [|exact Hx|exact Hgood|lia|].
    + intros c Hcin. rewrite Forall_forall in Hc.
      destruct (not_reserved_not_keyword c (Hc c Hcin)) as [-> [-> _]]. reflexivity.
    + rewrite skipn_app, Nat.sub_diag, skipn_all. symmetry. exact Ht.
Qed.

Theorem write_path_roundtrip_proof d uuid comp :
  valid_digest d -> valid_compressor comp -> uuid <> [] -> ~ In slash uuid ->
  exists s, get_write_path (pack d) uuid comp = Ok s /\ parse_write_path s = Ok (pack d, comp).
Proof.
  intros V Hcomp Hu1 Hu2. destruct (vd_inst d V) as [comps [Hi Hc]].
  destruct (valid_component_facts comps Hc) as [Hne _].
  destruct (formatted_tail_facts d comp V Hcomp) as [Hgood [[x [post [Ht [Hx Hp]]]] Hfil]].
  destruct keyword_facts as [_ [_ [_ [_ [_ [U1 [U2 _]]]]]]].
  exists (join_slash (comps ++ c20_uploads :: uuid :: formatted_tail d comp)). split.
  - rewrite (proj2 (get_paths_pack d uuid comp V)).
    f_equal. cbn [app]. rewrite Hi, path_join_instance by exact Hne. cbn [filter].
    rewrite U1, (nonempty_true uuid Hu1), Hfil. reflexivity.
  - apply (parse_split_valid _ 5 (fun sp => (sp + 2)%nat) _ _ _ _ _ V Hi Hc Hcomp).
    + intros c Hcin. rewrite Forall_forall in Hc.
      destruct (not_reserved_not_keyword c (Hc c Hcin)) as [_ [_ ->]]. reflexivity.
    + apply beqb_refl.
    + constructor; [apply no_slash_good; assumption|]. constructor; [split; assumption|exact Hgood].
    + rewrite Ht. cbn [length]. lia.
    + rewrite skipn_app, skipn_all2 by lia.
      replace (length comps + 2 - length comps)%nat with 2%nat by lia. reflexivity.
Qed.

(** * Totality of the instance-name parser: no panic, on arbitrary bytes *)
Lemma rev_good x cur : slash_free (x :: cur) -> good_field (rev (x :: cur)).
Proof.
  intro H. split; [|intro K; apply in_rev in K; exact (H K)].
  intro E. apply (f_equal (@length N)) in E. rewrite rev_length in E. discriminate.
Qed.

Lemma fields_aux_good s : forall cur, slash_free cur -> Forall good_field (fields_aux cur s).
Proof.
  induction s as [|c r IH]; intros cur H; cbn [fields_aux].
  - destruct cur as [|x cur']; cbn [nonempty]; constructor; [apply rev_good, H|constructor].
  - destruct (N.eqb_spec c slash) as [->|Ne]; [|apply IH; intros [E|K]; [congruence|exact (H K)]].
    destruct cur as [|x cur']; cbn [nonempty]; [|constructor; [apply rev_good, H|]]; apply IH; intros [].
Qed.

Lemma fields_good s : Forall good_field (fields_by_slash s).
Proof. apply fields_aux_good. intros []. Qed.

Lemma fields_nonempty s : Forall (fun c => c <> []) (fields_by_slash s).
Proof. eapply Forall_impl; [|apply fields_good]. intros c [A _]. exact A. Qed.

Lemma validate_components_eq l :
  Forall (fun c => c <> []) l ->
  validate_components l = if forallb (fun c => negb (memb c c20_reserved)) l then Ok tt else Err InvalidArgument.
Proof.
  induction 1 as [|c r Hc _ IH]; [reflexivity|]. cbn [validate_components forallb].
  rewrite (nonempty_true c Hc), IH. destruct (memb c c20_reserved); reflexivity.
Qed.

Lemma new_instance_name_eq v :
  new_instance_name v =
  if negb (has_prefix [slash] v) && negb (has_suffix [slash] v) && negb (contains [slash; slash] v)
     && forallb (fun c => negb (memb c c20_reserved)) (fields_by_slash v)
  then Ok v else Err InvalidArgument.
Proof.
  unfold new_instance_name. rewrite (validate_components_eq _ (fields_nonempty v)).
  destruct (has_prefix [slash] v), (has_suffix [slash] v), (contains [slash; slash] v),
    (forallb _ (fields_by_slash v)); reflexivity.
Qed.

Lemma new_digest_no_panic i f h s : new_digest i f h s <> Panic.
Proof. rewrite new_digest_eq. destruct (_ && _); discriminate. Qed.

Lemma find_split_total stop fields k : forall fuel i,
  (1 <= k)%nat -> (i + k <= length fields)%nat -> (length fields - k - i < fuel)%nat ->
  match find_split stop fields k i fuel with
  | Ok sp => (i <= sp)%nat /\ (sp + k <= length fields)%nat
  | Err c => c = InvalidArgument
  | Panic => False
  end.
Proof.
  induction fuel as [|fuel IH]; intros i Hk Hi Hf; [lia|]. cbn [find_split].
  unfold nth_field. destruct (nth_error fields i) as [c|] eqn:E.
  - cbn [bind]. destruct (stop c); [lia|].
    destruct (Nat.ltb_spec (length fields - k) (S i)); [reflexivity|].
    specialize (IH (S i) Hk ltac:(lia) ltac:(lia)).
    destruct (find_split stop fields k (S i) fuel); [lia|exact IH|exact IH].
  - apply nth_error_None in E. lia.
Qed.

Lemma Forall_firstn' {T} (P : T -> Prop) n l : Forall P l -> Forall P (firstn n l).
Proof.
  intro H. rewrite Forall_forall in *. intros x Hx. apply H.
  rewrite <- (firstn_skipn n l). apply in_or_app. left. exact Hx.
Qed.

Theorem instance_name_total_proof s : new_instance_name s <> Panic.
Proof. rewrite new_instance_name_eq. destruct (_ && _); discriminate. Qed.

(** * Rejection of each malformed class *)
Lemma reject_wrong_hash_length inst f h s :
  N.of_nat (length h) <> 2 * snd f -> new_digest inst f h s = Err InvalidArgument.
Proof. intro H. rewrite new_digest_eq. apply N.eqb_neq in H. rewrite H. reflexivity. Qed.

Lemma reject_non_lowerhex inst f h s c :
  In c h -> lowerhex c = false -> new_digest inst f h s = Err InvalidArgument.
Proof.
  intros Hc Hl. rewrite new_digest_eq.
  assert (forallb lowerhex h = false) as ->; [|rewrite andb_false_r; reflexivity].
  destruct (forallb lowerhex h) eqn:E; [|reflexivity].
  rewrite forallb_forall in E. rewrite (E c Hc) in Hl. discriminate.
Qed.

Lemma uppercase_is_not_lowerhex c : 65 <= c <= 70 -> lowerhex c = false.
Proof.
  intro H. unfold lowerhex. apply orb_false_iff. split; apply andb_false_iff.
  - right. apply N.leb_gt. lia.
  - left. apply N.leb_gt. lia.
Qed.

Lemma reject_negative_size inst f h s :
  (s < 0)%Z -> new_digest inst f h s = Err InvalidArgument.
Proof.
  intro H. apply Z.leb_gt in H. rewrite new_digest_eq, H, andb_false_r. reflexivity.
Qed.

(** strconv.ParseInt: a non-digit after the optional sign, no digit at all, or a value
    outside int64 is an error *)
Definition strip_sign (s : bytes) : bytes :=
  match s with c :: r => if (c =? 43) || (c =? dash) then r else s | [] => [] end.
Lemma reject_non_numeric_size s : forallb is_digit (strip_sign s) = false -> parse_int s = None.
Proof.
  unfold strip_sign. destruct s as [|c r]; [reflexivity|]. rewrite parse_int_cons.
  destruct (c =? 43); [|destruct (c =? dash)]; apply ptail_non_digit.
Qed.
Lemma reject_empty_size : parse_int [] = None /\ parse_int [43] = None /\ parse_int [dash] = None.
Proof. repeat split. Qed.
Lemma reject_overflowing_size ds :
  ds <> [] -> forallb is_digit ds = true -> 2 ^ 63 <= horner 0 ds -> parse_int ds = None.
Proof. intros Hne Hd Hv. apply N.ltb_ge in Hv. rewrite parse_int_digits, Hv by assumption. reflexivity. Qed.

Lemma reject_reserved_keyword comps c :
  Forall (fun c => c <> []) comps -> In c comps -> In c c20_reserved ->
  new_instance_name_from_components comps = Err InvalidArgument.
Proof.
  intros Hne Hc Hr. unfold new_instance_name_from_components.
  assert (validate_components comps = Err InvalidArgument) as ->; [|reflexivity].
  induction Hne as [|x r Hx Hne IH]; [destruct Hc|]. cbn [validate_components].
  rewrite nonempty_true by exact Hx.
  destruct (memb x c20_reserved) eqn:E; [reflexivity|].
  destruct Hc as [->|Hc]; [|apply IH, Hc].
  apply memb_In in Hr. congruence.
Qed.

Lemma has_prefix_app p s : has_prefix p (p ++ s) = true.
Proof. induction p as [|x p IH]; [destruct s; reflexivity|]. cbn. rewrite N.eqb_refl. exact IH. Qed.
Lemma contains_app p a b : contains p (a ++ p ++ b) = true.
Proof.
  induction a as [|x a IH]; cbn [app].
  - destruct (p ++ b) eqn:E; unfold contains; fold contains; rewrite <- E, has_prefix_app; reflexivity.
  - cbn [contains]. rewrite IH. apply orb_true_r.
Qed.

Lemma reject_redundant_slashes :
  (forall s, new_instance_name (slash :: s) = Err InvalidArgument) /\
  (forall s, new_instance_name (s ++ [slash]) = Err InvalidArgument) /\
  (forall a b, new_instance_name (a ++ slash :: slash :: b) = Err InvalidArgument).
Proof.
  split; [|split]; intros; unfold new_instance_name.
  - assert (has_prefix [slash] (slash :: s) = true) as -> by reflexivity. reflexivity.
  - unfold has_suffix. rewrite rev_app_distr.
    assert (has_prefix (rev [slash]) (rev [slash] ++ rev s) = true) as -> by reflexivity.
    rewrite orb_true_r. reflexivity.
  - change (a ++ slash :: slash :: b) with (a ++ [slash; slash] ++ b). rewrite contains_app.
    rewrite orb_true_r. reflexivity.
Qed.

Lemma reject_unknown_function e :
  get_bare_function e 0 = None -> get_digest_function e 0 = Err InvalidArgument.
Proof. intro H. unfold get_digest_function. rewrite H. reflexivity. Qed.

Lemma reject_unknown_compressor header name rest :
  validate_components header = Ok tt -> compressor_by_name name = None ->
  parse_common header (c20_compressed_blobs :: name :: rest) = Err Unimplemented.
Proof.
  intros Hv Hn. unfold parse_common, new_instance_name_from_components. rewrite Hv.
  cbn [bind nth_field nth_error]. destruct keyword_facts as [K _]. rewrite K, beqb_refl.
  cbn [bind nth_field nth_error]. rewrite Hn. reflexivity.
Qed.

Lemma reject_truncated_paths s :
  ((length (fields_by_slash s) < 3)%nat -> parse_read_path s = Err InvalidArgument) /\
  ((length (fields_by_slash s) < 5)%nat -> parse_write_path s = Err InvalidArgument).
Proof.
  split; intro H; [unfold parse_read_path|unfold parse_write_path];
    apply Nat.ltb_lt in H; rewrite H; reflexivity.
Qed.

(** * Ancestors: GetDigestsWithParentInstanceNames = the chain of component prefixes;
      NewInstanceName accepts every valid name *)
Lemma join_snoc cs c : cs <> [] -> join_slash (cs ++ [c]) = join_slash cs ++ slash :: c.
Proof. intro H. apply join_app; [exact H|discriminate]. Qed.

Lemma prefixes_snoc {T} (cs : list T) c : prefixes (cs ++ [c]) = prefixes cs ++ [cs ++ [c]].
Proof.
  induction cs as [|x r IH]; [reflexivity|].
  cbn [app prefixes]. rewrite IH, map_app. reflexivity.
Qed.
Lemma prefixes_head {T} (l : list T) : prefixes l = [] :: tl (prefixes l).
Proof. destruct l; reflexivity. Qed.

Lemma count_slashes_app a b : count_slashes (a ++ b) = (count_slashes a + count_slashes b)%nat.
Proof. induction a as [|x a IH]; [reflexivity|]. cbn [app count_slashes]. rewrite IH. lia. Qed.
Lemma count_slashes_free c : slash_free c -> count_slashes c = 0%nat.
Proof.
  induction c as [|x c IH]; intro H; [reflexivity|]. cbn [count_slashes].
  destruct (slash_free_cons _ _ H) as [-> Hc]. apply IH, Hc.
Qed.
Lemma count_slashes_join comps :
  comps <> [] -> Forall good_field comps ->
  count_slashes (join_slash comps) = (length comps - 1)%nat.
Proof.
  induction comps as [|x r IH]; intros H F; [congruence|]. inversion F as [|? ? [_ Hx] Fr]; subst.
  destruct r as [|y r'].
  - cbn [join_slash length]. rewrite count_slashes_free by exact Hx. reflexivity.
  - rewrite join_cons by discriminate.
    rewrite count_slashes_app, count_slashes_free by exact Hx. cbn [count_slashes].
    rewrite N.eqb_refl, IH by (discriminate || assumption). cbn [length]. lia.
Qed.

Lemma join_first_last comps :
  comps <> [] -> Forall good_field comps ->
  (exists a t, join_slash comps = a :: t /\ a <> slash) /\
  (exists t z, join_slash comps = t ++ [z] /\ z <> slash).
Proof.
  intros H F. split.
  - destruct comps as [|x r]; [congruence|]. inversion F as [|? ? [Hne Hsf] _]; subst.
    destruct x as [|a x']; [congruence|].
    assert (a <> slash) by (intro E; apply Hsf; left; auto).
    destruct r; [exists a, x'; split; [reflexivity|assumption]|].
    eexists a, _. split; [reflexivity|assumption].
  - destruct (exists_last H) as [cs [c ->]].
    apply Forall_app in F as [_ Fc]. inversion Fc as [|? ? [Hne Hsf] _]; subst.
    destruct (exists_last Hne) as [c' [z ->]].
    assert (z <> slash) by (intro E; apply Hsf; apply in_or_app; right; left; auto).
    destruct cs as [|y cs'].
    + exists c', z. split; [reflexivity|assumption].
    + rewrite join_snoc by discriminate.
      exists (join_slash (y :: cs') ++ slash :: c'), z. split; [|assumption].
      rewrite <- app_assoc. reflexivity.
Qed.

Lemma count_slashes_mid s :
  (exists a t, s = a :: t /\ a <> slash) -> (exists t z, s = t ++ [z] /\ z <> slash) ->
  count_slashes (firstn (length s - 2) (tl s)) = count_slashes s.
Proof.
  intros [a [t [-> Ha]]] [t' [z [E Hz]]]. cbn [tl length count_slashes].
  assert (a =? slash = false) as -> by (apply N.eqb_neq; exact Ha). cbn [Nat.add].
  destruct t' as [|b t''].
  - cbn in E. injection E as -> ->. reflexivity.
  - cbn [app] in E. injection E as <- ->. rewrite app_length. cbn [length].
    replace (S (length t'' + 1) - 2)%nat with (length t'' + 0)%nat by lia.
    rewrite firstn_app_2. cbn [firstn]. rewrite app_nil_r, count_slashes_app. cbn [count_slashes].
    assert (z =? slash = false) as -> by (apply N.eqb_neq; exact Hz). lia.
Qed.

Lemma scan_back_app pre c : forall k,
  slash_free c -> (k < length c)%nat ->
  scan_back (pre ++ slash :: c) (S (length pre) + k) = Ok (S (length pre)).
Proof.
  induction k as [|k IH]; intros Hsf Hk.
  - rewrite Nat.add_0_r. cbn [scan_back]. unfold nth_byte.
    rewrite nth_error_app2 by lia. rewrite Nat.sub_diag. cbn [nth_error bind]. rewrite N.eqb_refl. reflexivity.
  - replace (S (length pre) + S k)%nat with (S (S (length pre) + k)) by lia. cbn [scan_back]. unfold nth_byte.
    rewrite nth_error_app2 by lia.
    replace (S (length pre) + k - length pre)%nat with (S k) by lia. cbn [nth_error].
    destruct (nth_error c k) as [x|] eqn:E; [|apply nth_error_None in E; lia].
    cbn [bind]. assert (x =? slash = false) as ->.
    { apply N.eqb_neq. intro Q. subst x. apply Hsf. eapply nth_error_In. exact E. }
    apply IH; [exact Hsf|lia].
Qed.

Lemma parents_loop_spec K : forall comps acc,
  comps <> [] -> Forall good_field comps ->
  parents_loop (K ++ join_slash comps) (length comps - 1) acc =
  Ok (map (fun p => K ++ join_slash p) (tl (prefixes comps)) ++ acc).
Proof.
  intro comps. induction comps as [|c cs IH] using rev_ind; intros acc H F; [congruence|].
  apply Forall_app in F as [Fcs Fc]. inversion Fc as [|? ? [Hne Hsf] _]; subst.
  rewrite prefixes_snoc. destruct cs as [|y cs'].
  - cbn. reflexivity.
  - rewrite app_length. cbn [length]. replace (S (length cs') + 1 - 1)%nat with (S (length cs')) by lia.
    cbn [parents_loop]. rewrite join_snoc, app_assoc by discriminate.
    set (pre := K ++ join_slash (y :: cs')).
    assert (Lc : (0 < length c)%nat) by (destruct c; [congruence|cbn; lia]).
    replace (length (pre ++ slash :: c) - 1)%nat with (S (length pre) + (length c - 1))%nat
      by (rewrite app_length; cbn [length]; lia).
    rewrite scan_back_app by (assumption || lia). cbn [bind].
    replace (S (length pre) - 1)%nat with (length pre) by lia.
    rewrite slice_prefix. cbn [bind]. unfold pre.
    cbn [length] in IH. replace (S (length cs') - 1)%nat with (length cs') in IH by lia.
    rewrite IH by (discriminate || assumption).
    rewrite (prefixes_head (y :: cs')). cbn [tl app]. rewrite map_app. cbn [map].
    change (y :: cs' ++ [c]) with ((y :: cs') ++ [c]). rewrite join_snoc, app_assoc by discriminate.
    rewrite <- (app_assoc _ [_] acc). reflexivity.
Qed.

Theorem parents_spec_proof d comps :
  valid_digest d -> d_inst d = join_slash comps -> Forall valid_component comps ->
  get_parents (pack d) = Ok (map (fun p => pack (with_instance d (join_slash p))) (prefixes comps)).
Proof.
  intros V Hi Hc. destruct (valid_component_facts comps Hc) as [_ [Hgf _]].
  pose proof (vd_size d V) as Hsz.
  (* everything is a prefix [K] followed by an instance name *)
  set (K := key0 d ++ [dash]).
  assert (Hp : forall p, pack (with_instance d (join_slash p)) = K ++ join_slash p).
  { intro p. rewrite pack_shape by (cbn; lia). apply snoc_app. }
  rewrite (map_ext _ _ Hp).
  unfold get_parents. rewrite (unpack_pack d V). cbn [bind u_se].
  rewrite pack_shape, Hi, slice_upto by lia. cbn [bind].
  rewrite (snoc_app (key0 d) dash (join_slash comps)), <- (last_length (key0 d) dash). fold K.
  destruct comps as [|c0 cs].
  - cbn [join_slash prefixes map]. rewrite !app_nil_r, Nat.eqb_refl. reflexivity.
  - assert (Hne : c0 :: cs <> []) by discriminate.
    destruct (join_first_last (c0 :: cs) Hne Hgf) as [Hf Hl].
    pose proof Hf as [a [t [Ea _]]].
    assert (Hmid : firstn (length (K ++ join_slash (c0 :: cs)) - 1 - S (length K))
                     (skipn (S (length K)) (K ++ join_slash (c0 :: cs)))
                   = firstn (length (join_slash (c0 :: cs)) - 2) (tl (join_slash (c0 :: cs)))).
    { rewrite app_length, Ea, snoc_app, <- (last_length K a), skipn_app_le, skipn_all by lia.
      rewrite last_length. cbn [length tl app]. f_equal. lia. }
    destruct (Nat.eqb_spec (length K) (length (K ++ join_slash (c0 :: cs)))) as [E|_].
    { rewrite app_length, Ea in E. cbn [length] in E. lia. }
    rewrite Hmid, (count_slashes_mid _ Hf Hl), (count_slashes_join _ Hne Hgf), parents_loop_spec by assumption.
    cbn [bind]. rewrite (prefixes_head (c0 :: cs)). cbn [map tl join_slash]. rewrite !app_nil_r. reflexivity.
Qed.

Lemma contains_skip c rest :
  slash_free c -> contains [slash; slash] (c ++ rest) = contains [slash; slash] rest.
Proof.
  induction c as [|x c IH]; intro H; [reflexivity|]. cbn [app]. destruct (slash_free_cons _ _ H) as [E Hc].
  change (contains [slash; slash] (x :: c ++ rest))
    with (has_prefix [slash; slash] (x :: c ++ rest) || contains [slash; slash] (c ++ rest)).
  cbn [has_prefix]. rewrite N.eqb_sym, E. cbn [andb orb]. apply IH, Hc.
Qed.

Lemma contains_join comps :
  Forall good_field comps -> contains [slash; slash] (join_slash comps) = false.
Proof.
  induction comps as [|x r IH]; intro F; [reflexivity|]. inversion F as [|? ? [Hne Hsf] Fr]; subst.
  destruct r as [|y r'].
  - cbn [join_slash]. rewrite <- (app_nil_r x), contains_skip by exact Hsf. reflexivity.
  - rewrite join_cons by discriminate.
    rewrite contains_skip by exact Hsf.
    change (contains [slash; slash] (slash :: join_slash (y :: r')))
      with (has_prefix [slash; slash] (slash :: join_slash (y :: r')) || contains [slash; slash] (join_slash (y :: r'))).
    rewrite IH by exact Fr. rewrite orb_false_r.
    destruct (join_first_last (y :: r') ltac:(discriminate) Fr) as [[a [t [-> Ha]]] _].
    cbn [has_prefix]. rewrite N.eqb_refl. cbn [andb].
    assert (slash =? a = false) as -> by (apply N.eqb_neq; congruence). reflexivity.
Qed.

Theorem instance_name_accepts_valid_proof v : valid_instance v -> new_instance_name v = Ok v.
Proof.
  intros [comps [-> Hc]]. destruct (valid_component_facts comps Hc) as [_ [Hgf _]].
  unfold new_instance_name. rewrite contains_join by exact Hgf. rewrite orb_false_r.
  rewrite fields_join by exact Hgf. rewrite validate_components_valid by exact Hc. cbn [bind].
  destruct comps as [|c0 cs]; [reflexivity|].
  destruct (join_first_last (c0 :: cs) ltac:(discriminate) Hgf) as [[a [t [E1 Ha]]] [t' [z [E2 Hz]]]].
  assert (has_prefix [slash] (join_slash (c0 :: cs)) = false) as ->.
  { rewrite E1. cbn [has_prefix]. assert (slash =? a = false) as -> by (apply N.eqb_neq; congruence). reflexivity. }
  assert (has_suffix [slash] (join_slash (c0 :: cs)) = false) as ->.
  { unfold has_suffix. rewrite E2, rev_app_distr. cbn [rev app has_prefix].
    assert (slash =? z = false) as -> by (apply N.eqb_neq; congruence). reflexivity. }
  reflexivity.
Qed.

(** * Soundness of acceptance: whatever a parser accepts is a non-degenerate digest;
      totality of the digest parsers *)
Definition bare_entry_ok (f : bare) : bool :=
  existsb (N.eqb (fst f)) supported_enums
  && match assoc (fst f) c20_bare_by_enum with Some g => (fst g =? fst f) && (snd g =? snd f) | None => false end.
Lemma bare_tables_sound :
  forallb (fun p => bare_entry_ok (snd p)) c20_bare_by_enum = true /\
  forallb (fun p => bare_entry_ok (snd p)) c20_bare_by_size = true.
Proof. split; vm_compute; reflexivity. Qed.

Lemma assoc_In {V} k (tbl : list (N * V)) v : assoc k tbl = Some v -> In (k, v) tbl.
Proof.
  induction tbl as [|[k' v'] r IH]; [discriminate|]. cbn [assoc].
  destruct (N.eqb_spec k k'); [intros [= ->]; subst; left; reflexivity|intro H; right; apply IH, H].
Qed.

Lemma get_bare_function_sound e n f :
  get_bare_function e n = Some f ->
  In (fst f) supported_enums /\ hash_bytes_of (fst f) = Some (snd f).
Proof.
  intro H. assert (bare_entry_ok f = true) as B.
  { destruct bare_tables_sound as [T1 T2]. unfold get_bare_function in H.
    destruct (e =? c20_enum_unknown); apply assoc_In in H;
      [rewrite forallb_forall in T2; exact (T2 _ H)|rewrite forallb_forall in T1; exact (T1 _ H)]. }
  unfold bare_entry_ok in B. apply andb_true_iff in B as [B1 B2].
  split.
  - apply existsb_exists in B1 as [x [Hx E]]. apply N.eqb_eq in E. subst. exact Hx.
  - unfold hash_bytes_of. destruct (assoc (fst f) c20_bare_by_enum) as [g|]; [|discriminate].
    apply andb_true_iff in B2 as [_ B2]. apply N.eqb_eq in B2. rewrite B2. reflexivity.
Qed.

Lemma function_by_name_sound name f :
  function_by_name name = Some f -> In (fst f) supported_enums /\ hash_bytes_of (fst f) = Some (snd f).
Proof.
  unfold function_by_name. destruct (assoc_name name midfix_functions); [|discriminate].
  apply get_bare_function_sound.
Qed.

Lemma new_digest_ok inst e n f h z v :
  valid_instance inst -> get_bare_function e n = Some f -> (z < 2 ^ 63)%Z ->
  new_digest inst f h z = Ok v ->
  valid_digest {| d_fn := fst f; d_hash := h; d_size := z; d_inst := inst |}
  /\ v = pack {| d_fn := fst f; d_hash := h; d_size := z; d_inst := inst |}.
Proof.
  intros Hi Hf Hz H. rewrite new_digest_eq in H.
  destruct (_ && _) eqn:C in H; [|discriminate]. injection H as <-.
  apply andb_true_iff in C as [C Hs]. apply andb_true_iff in C as [El Eh].
  apply N.eqb_eq in El. apply Z.leb_le in Hs.
  destruct (get_bare_function_sound _ _ _ Hf) as [Hsup Hb].
  split; [|reflexivity]. constructor; cbn [d_fn d_hash d_size d_inst]; auto.
  exists (snd f). auto.
Qed.

Definition status_err (c : Z) : Prop := c = InvalidArgument \/ c = Unimplemented.

Lemma new_digest_err i f h s c : new_digest i f h s = Err c -> c = InvalidArgument.
Proof. rewrite new_digest_eq. destruct (_ && _); [discriminate|intros [= <-]; reflexivity]. Qed.

Lemma read_uvarint_cases fuel : forall first x s inp,
  match read_uvarint fuel first x s inp with Ok _ => True | Err c => (100 <= c)%Z | Panic => False end.
Proof.
  induction fuel as [|f IH]; intros first x s inp; cbn [read_uvarint]; [unfold ErrOverflow; lia|].
  destruct inp as [|b r]; [destruct first; unfold ErrEOF, ErrUnexpectedEOF; lia|].
  destruct (b <? 128); [|apply IH].
  destruct ((match f with O => true | S _ => false end) && (1 <? b)); [unfold ErrOverflow; lia|exact I].
Qed.

Lemma read_uvarint_range fuel : forall first x s inp ux rest,
  (fuel <= 10)%nat -> s = 7 * N.of_nat (10 - fuel) -> x < 2 ^ s ->
  read_uvarint fuel first x s inp = Ok (ux, rest) -> ux < 2 ^ 64.
Proof.
  induction fuel as [|f IH]; intros first x s inp ux rest Hf Hs Hx; cbn [read_uvarint]; [discriminate|].
  destruct inp as [|b r]; [discriminate|].
  destruct (N.ltb_spec b 128) as [Hb|Hb].
  - destruct f as [|f'].
    + cbn [andb]. destruct (N.ltb_spec 1 b) as [H1|H1]; [discriminate|]. intros [= <- <-].
      replace (10 - 1)%nat with 9%nat in Hs by lia. subst s. change (7 * N.of_nat 9) with 63 in *.
      assert (b * 2 ^ 63 <= 1 * 2 ^ 63) by (apply N.mul_le_mono_r; lia).
      change (2 ^ 64) with (2 ^ 63 + 1 * 2 ^ 63). lia.
    + cbn [andb]. intros [= <- <-].
      assert (Hs' : s + 7 <= 63).
      { subst s. lia. }
      assert (b * 2 ^ s < 128 * 2 ^ s) by (apply N.mul_lt_mono_pos_r; [pose proof (N.pow_nonzero 2 s ltac:(lia)); lia|lia]).
      assert (2 ^ (s + 7) <= 2 ^ 63) by (apply N.pow_le_mono_r; lia).
      rewrite N.pow_add_r in *. change (2 ^ 7) with 128 in *.
      change (2 ^ 64) with (2 * 2 ^ 63). lia.
  - destruct f as [|f']; [cbn [read_uvarint]; discriminate|].
    apply IH; [lia| |].
    + subst s. replace (10 - S f')%nat with (S (10 - S (S f')))%nat by lia. lia.
    + assert (Hm : b mod 128 < 128) by (apply N.mod_lt; lia).
      assert ((b mod 128) * 2 ^ s <= 127 * 2 ^ s) by (apply N.mul_le_mono_r; lia).
      rewrite N.pow_add_r. change (2 ^ 7) with 128. lia.
Qed.

Lemma unzigzag_range ux : ux < 2 ^ 64 -> (- 2 ^ 63 <= unzigzag ux < 2 ^ 63)%Z.
Proof.
  intro H. unfold unzigzag.
  assert (H2 : ux / 2 < 2 ^ 63) by (apply N.div_lt_upper_bound; [lia|exact H]).
  change (2 ^ 63) with 9223372036854775808 in H2.
  change (2 ^ 63)%Z with 9223372036854775808%Z.
  set (q := ux / 2) in *. clearbody q.
  destruct (N.odd ux); lia.
Qed.

Lemma read_varint_cases inp :
  match read_varint inp with
  | Ok (z, _) => (- 2 ^ 63 <= z < 2 ^ 63)%Z
  | Err c => (100 <= c)%Z
  | Panic => False
  end.
Proof.
  unfold read_varint. pose proof (read_uvarint_cases 10 true 0 0 inp) as P.
  destruct (read_uvarint 10 true 0 0 inp) as [[ux r]|c|] eqn:E; cbn [bind]; [|exact P|exact P].
  apply unzigzag_range. eapply (read_uvarint_range 10 true 0 0); [lia|reflexivity|reflexivity|exact E].
Qed.

Lemma compact_cases inst inp :
  match new_digest_from_compact_binary inst inp with
  | Ok (v, _) => valid_instance inst -> exists d, valid_digest d /\ v = pack d /\ d_inst d = inst
  | Err c => (3 <= c)%Z
  | Panic => False
  end.
Proof.
  unfold new_digest_from_compact_binary. destruct inp as [|e r]; [unfold ErrEOF; lia|].
  unfold get_digest_function. destruct (get_bare_function e 0) as [f|] eqn:Hf; cbn [bind];
    [|unfold InvalidArgument; lia].
  destruct (length r <? N.to_nat (snd f))%nat; [unfold ErrEOF; lia|].
  pose proof (read_varint_cases (skipn (N.to_nat (snd f)) r)) as R.
  destruct (read_varint (skipn (N.to_nat (snd f)) r)) as [[sz rest]|c|]; cbn [bind]; [|lia|exact R].
  destruct (new_digest inst f (hex_encode (firstn (N.to_nat (snd f)) r)) sz) as [v|c|] eqn:En; cbn [bind].
  - intro Hi. destruct (new_digest_ok _ _ _ _ _ _ _ Hi Hf (proj2 R) En) as [Hv Hp].
    eexists. split; [exact Hv|]. split; [exact Hp|reflexivity].
  - apply new_digest_err in En. subst. unfold InvalidArgument. lia.
  - exact (new_digest_no_panic _ _ _ _ En).
Qed.

Theorem compact_total_proof inst inp : new_digest_from_compact_binary inst inp <> Panic.
Proof. intro E. pose proof (compact_cases inst inp) as C. rewrite E in C. exact C. Qed.

Definition adjacent (h s : bytes) (l : list bytes) : Prop := exists pre post, l = pre ++ h :: s :: post.

Lemma adjacent_here h s post : adjacent h s (h :: s :: post).
Proof. exists [], post. reflexivity. Qed.
Lemma adjacent_cons x h s l : adjacent h s l -> adjacent h s (x :: l).
Proof. intros (a & b & ->). exists (x :: a), b. reflexivity. Qed.
Lemma adjacent_skipn n h s l : adjacent h s (skipn n l) -> adjacent h s l.
Proof.
  intros (a & b & E). exists (firstn n l ++ a), b.
  rewrite <- app_assoc, <- E. symmetry. apply firstn_skipn.
Qed.

Definition parsed (fields : list bytes) (o : outcome (bytes * N)) : Prop :=
  match o with
  | Ok (v, c) => exists d s, valid_digest d /\ v = pack d /\ valid_compressor c
                             /\ adjacent (d_hash d) s fields /\ parse_int s = Some (d_size d)
  | Err c => status_err c
  | Panic => False
  end.

Lemma parsed_skipn n fields o : parsed (skipn n fields) o -> parsed fields o.
Proof.
  destruct o as [[v c]| |]; cbn [parsed]; [|auto|auto].
  intros (d & s & H1 & H2 & H3 & H4 & H5). exists d, s. eauto 6 using adjacent_skipn.
Qed.

Lemma parsed_new_digest inst fields f h s z cc :
  valid_instance inst -> (exists e n, get_bare_function e n = Some f) -> parse_int s = Some z ->
  valid_compressor cc -> adjacent h s fields ->
  parsed fields (d <- new_digest inst f h z ;; Ok (d, cc)).
Proof.
  intros Hi (e & n & Hf) Hs Hc Ha. destruct (new_digest inst f h z) as [v|c|] eqn:E; cbn [bind parsed].
  - destruct (new_digest_ok _ _ _ _ _ _ _ Hi Hf (proj2 (parse_int_range _ _ Hs)) E) as [V ->].
    eexists _, s. split; [exact V|]. split; [reflexivity|]. split; [exact Hc|]. split; [exact Ha|exact Hs].
  - left. eapply new_digest_err, E.
  - eapply new_digest_no_panic, E.
Qed.

Lemma compressor_by_name_valid n cc : compressor_by_name n = Some cc -> valid_compressor cc.
Proof.
  unfold compressor_by_name. intro H. right.
  induction c20_compressors as [|[c0 n0] r IH]; [discriminate|]. cbn [assoc_name] in H.
  destruct (beqb n n0); [injection H as ->; left; reflexivity|right; apply IH, H].
Qed.

Lemma function_by_name_bare name f : function_by_name name = Some f -> exists e n, get_bare_function e n = Some f.
Proof. unfold function_by_name. destruct (assoc_name name midfix_functions); [eauto|discriminate]. Qed.

(** one step down the decision tree of [parse_common]: split on what the next [match] or
    [bind] inspects, until an error or the constructor call is reached *)
Ltac parse_step :=
  match goal with
  | |- parsed _ (Err _) => fail 1
  | |- parsed _ (bind (new_digest _ _ _ _) _) => fail 1
  | |- context [match ?x with _ => _ end] => destruct x eqn:?
  | |- context [bind ?x _] => destruct x eqn:?
  end;
  cbn [bind skipn nth_field nth_error length Nat.ltb Nat.leb].

Lemma parse_common_spec header trailer :
  Forall good_field header -> (3 <= length trailer)%nat -> parsed trailer (parse_common header trailer).
Proof.
  intros Hh Hl. unfold parse_common, new_instance_name_from_components.
  rewrite validate_components_eq by (eapply Forall_impl; [|exact Hh]; intros c [A _]; exact A).
  destruct (forallb _ header) eqn:Hr; cbn [bind]; [|left; reflexivity].
  assert (Hinst : valid_instance (join_slash header)).
  { exists header. split; [reflexivity|]. rewrite forallb_forall in Hr. rewrite Forall_forall in *.
    intros x Hx. destruct (Hh x Hx) as [A B]. repeat split; [exact A|exact B|apply not_memb_iff, Hr, Hx]. }
  destruct trailer as [|t0 [|t1 [|t2 rest]]]; cbn [length] in Hl; try lia.
  destruct rest as [|r0 [|r1 rest']]; cbn [bind skipn nth_field nth_error length Nat.ltb Nat.leb];
    repeat parse_step;
    try (first [left; reflexivity|right; reflexivity]);
    (eapply (parsed_new_digest _ _ _ _ _ _ _ Hinst);
     [first [eexists _, _; eassumption|eapply function_by_name_bare; eassumption]
     |eassumption
     |first [left; reflexivity|eapply compressor_by_name_valid; eassumption]
     |auto using adjacent_here, adjacent_cons]).
Qed.

Lemma parse_split_spec stop k (from : nat -> nat) s :
  (1 <= k)%nat -> (forall sp, (from sp + 3 <= sp + k)%nat) ->
  let fields := fields_by_slash s in
  parsed fields (if (length fields <? k)%nat then Err InvalidArgument
                 else sp <- find_split stop fields k 0 (S (length fields)) ;;
                      parse_common (firstn sp fields) (skipn (from sp) fields)).
Proof.
  intros Hk Hfrom fields. destruct (Nat.ltb_spec (length fields) k) as [L|L]; [left; reflexivity|].
  pose proof (find_split_total stop fields k (S (length fields)) 0 Hk ltac:(lia) ltac:(lia)) as F.
  destruct (find_split stop fields k 0 (S (length fields))) as [sp|c|] eqn:E; cbn [bind];
    [|left; exact F|exact F].
  specialize (Hfrom sp). apply (parsed_skipn (from sp)), parse_common_spec.
  - apply Forall_firstn', fields_good.
  - rewrite skipn_length. lia.
Qed.

Lemma parse_read_path_spec s : parsed (fields_by_slash s) (parse_read_path s).
Proof. apply (parse_split_spec _ 3 (fun sp => sp)); [|intro]; lia. Qed.

Lemma parse_write_path_spec s : parsed (fields_by_slash s) (parse_write_path s).
Proof. apply (parse_split_spec _ 5 (fun sp => (sp + 2)%nat)); [|intro]; lia. Qed.

Theorem parse_total_proof s : parse_read_path s <> Panic /\ parse_write_path s <> Panic.
Proof.
  pose proof (parse_read_path_spec s) as R. pose proof (parse_write_path_spec s) as W.
  split; intro E; [rewrite E in R; exact R|rewrite E in W; exact W].
Qed.

Theorem parse_sound_proof s v c :
  (parse_read_path s = Ok (v, c) \/ parse_write_path s = Ok (v, c)) ->
  (exists d, valid_digest d /\ v = pack d) /\ valid_compressor c.
Proof.
  pose proof (parse_read_path_spec s) as R. pose proof (parse_write_path_spec s) as W.
  intros [E|E]; [rewrite E in R; destruct R as (d & sz & H)|rewrite E in W; destruct W as (d & sz & H)];
    (split; [exists d|]; tauto).
Qed.
