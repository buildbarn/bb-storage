(** C20 — the set operations equal the mathematical sets, sorted and duplicate-free. *)
From Coq Require Import List NArith ZArith Bool Lia Sorted.
From BBS Require Import Digest.DigestModel Digest.SetModel Digest.DigestProofs.
Import ListNotations.

Definition blt (a b : bytes) : Prop := bltb a b = true.

(** strictly increasing in Go's string order (hence duplicate-free) *)
Definition sorted (l : list bytes) : Prop := StronglySorted blt l.

Lemma blt_trans a b c : blt a b -> blt b c -> blt a c.
Proof. apply bltb_trans. Qed.

Lemma sorted_NoDup l : sorted l -> NoDup l.
Proof.
  induction 1 as [|x l Hs IH Hx]; constructor; [|exact IH].
  intro K. rewrite Forall_forall in Hx. specialize (Hx _ K). unfold blt in Hx.
  rewrite bltb_irrefl in Hx. discriminate.
Qed.

Lemma sorted_map_filter {X} (f : X -> bytes) (p : X -> bool) l :
  sorted (map f l) -> sorted (map f (filter p l)).
Proof.
  induction l as [|x l IH]; intro H; [constructor|]. cbn [map] in H. inversion H as [|? ? Hs Hx]; subst.
  cbn [filter]. destruct (p x); [|apply IH, Hs]. cbn [map]. constructor; [apply IH, Hs|].
  rewrite Forall_forall in *. intros y Hy. apply Hx. apply in_map_iff in Hy. destruct Hy as (z & <- & Hz).
  apply filter_In in Hz. apply in_map. tauto.
Qed.

Lemma filter_sorted (f : bytes -> bool) l : sorted l -> sorted (filter f l).
Proof. intro H. rewrite <- (map_id (filter f l)). apply sorted_map_filter. rewrite map_id. exact H. Qed.

Lemma in_cons_eq {T} (y x : T) l : In y (x :: l) <-> y = x \/ In y l.
Proof. cbn [In]. split; intros [E|H]; auto. Qed.

Lemma insert_In x y l : In y (insert x l) <-> y = x \/ In y l.
Proof.
  induction l as [|h t IH]; cbn [insert]; [apply in_cons_eq|].
  destruct (bltb x h); [apply in_cons_eq|].
  destruct (beqb x h) eqn:E.
  - apply beqb_eq in E. subst h. split; [auto|]. intros [->|H]; [left; reflexivity|exact H].
  - cbn [In]. rewrite IH. clear. tauto.
Qed.

Lemma insert_sorted x l : sorted l -> sorted (insert x l).
Proof.
  induction 1 as [|h t Hs IH Hh]; cbn [insert].
  - constructor; constructor.
  - destruct (bltb x h) eqn:E1.
    + constructor; [constructor; assumption|].
      constructor; [exact E1|]. eapply Forall_impl; [|exact Hh]. intros a Ha. eapply blt_trans; eassumption.
    + destruct (beqb x h) eqn:E2; [constructor; assumption|].
      constructor; [exact IH|].
      rewrite Forall_forall. intros y Hy. apply insert_In in Hy as [->|Hy].
      * apply bltb_total; assumption.
      * rewrite Forall_forall in Hh. apply Hh, Hy.
Qed.

Theorem build_spec_proof l :
  sorted (build l) /\ NoDup (build l) /\ forall x, In x (build l) <-> In x l.
Proof.
  assert (S : sorted (build l)).
  { induction l as [|h t IH]; cbn; [constructor|apply insert_sorted, IH]. }
  split; [exact S|]. split; [apply sorted_NoDup, S|]. clear S.
  induction l as [|h t IH]; intro x; cbn [build fold_right]; [reflexivity|].
  fold (build t). rewrite insert_In, IH. cbn. intuition congruence.
Qed.

Lemma sorted_tail x l : sorted (x :: l) -> sorted l.
Proof. inversion 1; assumption. Qed.
Lemma sorted_head_lt x l y : sorted (x :: l) -> In y l -> blt x y.
Proof. inversion 1; subst. rewrite Forall_forall in *. auto. Qed.
Lemma sorted_lt_not_in x y l : blt x y -> sorted (y :: l) -> ~ In x (y :: l).
Proof.
  intros Hxy Hs [->|K].
  - unfold blt in Hxy. rewrite bltb_irrefl in Hxy. discriminate.
  - pose proof (sorted_head_lt _ _ _ Hs K) as H2. pose proof (blt_trans _ _ _ Hxy H2) as H3.
    unfold blt in H3. rewrite bltb_irrefl in H3. discriminate.
Qed.

Lemma sorted_cons_intro x l : sorted l -> (forall y, In y l -> blt x y) -> sorted (x :: l).
Proof. intros Hs H. constructor; [exact Hs|]. rewrite Forall_forall. exact H. Qed.

Lemma sorted_head_not_in x l : sorted (x :: l) -> ~ In x l.
Proof. intro H. apply sorted_NoDup in H. inversion H; assumption. Qed.

Lemma memb_false x l : ~ In x l -> memb x l = false.
Proof. intro H. apply negb_true_iff, not_memb_iff, H. Qed.

Lemma memb_head x l : memb x (x :: l) = true.
Proof. apply memb_In. left. reflexivity. Qed.

Lemma filter_memb_nil (l : list bytes) :
  filter (fun z => negb (memb z [])) l = l /\ filter (fun z => memb z []) l = [].
Proof. induction l as [|x l [IH1 IH2]]; [split; reflexivity|]. cbn [filter]. rewrite IH1, IH2. split; reflexivity. Qed.

Lemma filter_memb_cons (p : bool -> bool) x a b :
  ~ In x b -> filter (fun z => p (memb z (x :: a))) b = filter (fun z => p (memb z a)) b.
Proof.
  intro H. apply filter_ext_in. intros z Hz. unfold memb. cbn [existsb].
  replace (beqb z x) with false; [reflexivity|]. symmetry. apply beqb_neq. intros ->. exact (H Hz).
Qed.

Lemma diff_inter_cons x a y b :
  diff_inter (x :: a) (y :: b) =
  if bltb x y then let '(oa, bo, ob) := diff_inter a (y :: b) in (x :: oa, bo, ob)
  else if beqb x y then let '(oa, bo, ob) := diff_inter a b in (oa, x :: bo, ob)
  else let '(oa, bo, ob) := diff_inter (x :: a) b in (oa, bo, y :: ob).
Proof. reflexivity. Qed.

Lemma diff_inter_filter : forall a b, sorted a -> sorted b ->
  diff_inter a b = (filter (fun z => negb (memb z b)) a, filter (fun z => memb z b) a,
                    filter (fun z => negb (memb z a)) b).
Proof.
  induction a as [|x a IHa]; intros b Sa Sb.
  - cbn [diff_inter filter]. rewrite (proj1 (filter_memb_nil b)). reflexivity.
  - induction b as [|y b IHb].
    + destruct (filter_memb_nil (x :: a)) as [-> ->]. reflexivity.
    + rewrite diff_inter_cons. destruct (bltb x y) eqn:E1; [|destruct (beqb x y) eqn:E2].
      * assert (Nx : ~ In x (y :: b)) by (apply sorted_lt_not_in; assumption).
        rewrite (IHa _ (sorted_tail _ _ Sa) Sb), <- (filter_memb_cons negb x a (y :: b) Nx).
        cbn [filter]. rewrite (memb_false _ _ Nx). reflexivity.
      * apply beqb_eq in E2. subst y.
        pose proof (sorted_head_not_in _ _ Sa) as Na. pose proof (sorted_head_not_in _ _ Sb) as Nb.
        rewrite (IHa _ (sorted_tail _ _ Sa) (sorted_tail _ _ Sb)).
        rewrite <- (filter_memb_cons negb x b a Na), <- (filter_memb_cons (fun m => m) x b a Na),
          <- (filter_memb_cons negb x a b Nb).
        cbn [filter]. rewrite !memb_head. reflexivity.
      * assert (Ny : ~ In y (x :: a)) by (apply sorted_lt_not_in; [apply bltb_total|]; assumption).
        rewrite (IHb (sorted_tail _ _ Sb)).
        rewrite <- (filter_memb_cons negb y b (x :: a) Ny), <- (filter_memb_cons (fun m => m) y b (x :: a) Ny).
        cbn [filter]. rewrite (memb_false _ _ Ny). reflexivity.
Qed.

Theorem diff_inter_spec_proof : forall a b,
  sorted a -> sorted b ->
  let '(oa, bo, ob) := diff_inter a b in
  (sorted oa /\ sorted bo /\ sorted ob) /\
  (forall x, In x oa <-> In x a /\ ~ In x b) /\
  (forall x, In x bo <-> In x a /\ In x b) /\
  (forall x, In x ob <-> In x b /\ ~ In x a).
Proof.
  intros a b Sa Sb. rewrite (diff_inter_filter a b Sa Sb). split; [auto using filter_sorted|].
  split; [|split]; intro x; rewrite filter_In, ?not_memb_iff, ?memb_In; reflexivity.
Qed.

Definition elem (ls : list (list bytes)) (x : bytes) : Prop := exists l, In l ls /\ In x l.
Definition ble (a b : bytes) : Prop := a = b \/ blt a b.

Lemma elem_cons l r x : elem (l :: r) x <-> In x l \/ elem r x.
Proof.
  split.
  - intros [l' [[<-|Hl] Hx]]; [left; exact Hx|right; exists l'; split; assumption].
  - intros [Hx|[l' [Hl Hx]]]; [exists l|exists l']; (split; [|exact Hx]); [left; reflexivity|right; exact Hl].
Qed.

Lemma ble_trans a b c : ble a b -> ble b c -> ble a c.
Proof.
  intros [->|L1] [->|L2]; [left; reflexivity|right; exact L2|right; exact L1|right; exact (blt_trans _ _ _ L1 L2)].
Qed.
Lemma not_blt_ble a b : bltb a b = false -> ble b a.
Proof.
  intro L. destruct (beqb a b) eqn:Q; [apply beqb_eq in Q; left; congruence|right; apply bltb_total; assumption].
Qed.

Lemma min_head_none ls : min_head ls = None -> forall l, In l ls -> l = [].
Proof.
  induction ls as [|l r IH]; intros H l' K; [destruct K|].
  cbn [min_head] in H. destruct l as [|x t].
  - destruct K as [<-|K]; [reflexivity|apply IH; assumption].
  - destruct (min_head r) as [m|]; [destruct (bltb m x)|]; discriminate.
Qed.

Lemma min_head_some ls m :
  Forall sorted ls -> min_head ls = Some m ->
  (exists t, In (m :: t) ls) /\ forall x, elem ls x -> ble m x.
Proof.
  revert m. induction ls as [|l r IH]; intros m S H; [discriminate|].
  inversion S as [|? ? Sl Sr]; subst. cbn [min_head] in H.
  destruct l as [|x t].
  - destruct (IH m Sr H) as [[t' Ht] Hm]. split; [exists t'; right; exact Ht|].
    intros y [l' [[<-|Hl] Hy]]; [destruct Hy|]. apply Hm. exists l'. split; assumption.
  - assert (Hx : forall y, In y (x :: t) -> ble x y).
    { intros y [->|Hy]; [left; reflexivity|right; exact (sorted_head_lt _ _ _ Sl Hy)]. }
    destruct (min_head r) as [m'|] eqn:E.
    + destruct (IH m' Sr eq_refl) as [[t' Ht] Hm].
      destruct (bltb m' x) eqn:L; injection H as <-.
      * split; [exists t'; right; exact Ht|].
        intros y Hy. apply elem_cons in Hy as [Hy|Hy]; [|apply Hm, Hy].
        apply (ble_trans _ x); [right; exact L|apply Hx, Hy].
      * split; [exists t; left; reflexivity|].
        intros y Hy. apply elem_cons in Hy as [Hy|Hy]; [apply Hx, Hy|].
        apply (ble_trans _ m'); [apply not_blt_ble, L|apply Hm, Hy].
    + injection H as <-. split; [exists t; left; reflexivity|].
      intros y [l' [[<-|Hl] Hy]]; [apply Hx, Hy|].
      rewrite (min_head_none r E l' Hl) in Hy. destruct Hy.
Qed.

Lemma pop_head_spec ls m :
  Forall sorted ls -> (exists t, In (m :: t) ls) ->
  Forall sorted (pop_head m ls) /\
  (forall x, elem ls x <-> m = x \/ elem (pop_head m ls) x) /\
  S (total_length (pop_head m ls)) = total_length ls.
Proof.
  induction ls as [|l r IH]; intros S [t Ht]; [destruct Ht|].
  inversion S as [|? ? Sl Sr]; subst. cbn [pop_head].
  destruct l as [|x t'].
  - destruct Ht as [Ht|Ht]; [discriminate|].
    destruct (IH Sr (ex_intro _ t Ht)) as [A [B C]]. split; [exact A|]. split; [|exact C].
    intro y. rewrite elem_cons, B. cbn [In]. clear. tauto.
  - destruct (beqb x m) eqn:E.
    + apply beqb_eq in E. subst x. pose proof (sorted_tail _ _ Sl) as St.
      destruct t' as [|z t'']; (split; [auto|split; [|unfold total_length; cbn [fold_right length]; lia]]);
        intro y; rewrite !elem_cons; cbn [In]; clear; tauto.
    + assert (Hr : exists t, In (m :: t) r).
      { destruct Ht as [Ht|Ht]; [|exists t; exact Ht]. injection Ht as -> _. rewrite beqb_refl in E. discriminate. }
      destruct (IH Sr Hr) as [A [B C]].
      split; [constructor; assumption|]. split; [|unfold total_length in *; cbn [fold_right]; lia].
      intro y. rewrite !elem_cons, B. clear. tauto.
Qed.

Lemma blt_irrefl a : ~ blt a a.
Proof. unfold blt. rewrite bltb_irrefl. discriminate. Qed.

Lemma union_loop_spec fuel : forall ls last,
  Forall sorted ls -> min_head ls = Some last -> (total_length ls <= fuel)%nat ->
  sorted (union_loop fuel ls last) /\
  forall x, In x (union_loop fuel ls last) <-> blt last x /\ elem ls x.
Proof.
  induction fuel as [|f IH]; intros ls last S Hm Hf.
  - exfalso. destruct (min_head_some ls last S Hm) as [[t Ht] _].
    destruct (pop_head_spec ls last S (ex_intro _ t Ht)) as [_ [_ C]]. lia.
  - cbn [union_loop]. rewrite Hm.
    destruct (min_head_some ls last S Hm) as [[t Ht] Hmin].
    destruct (pop_head_spec ls last S (ex_intro _ t Ht)) as [S' [El C]].
    destruct (min_head (pop_head last ls)) as [d|] eqn:E.
    + destruct (min_head_some _ d S' E) as [[t' Ht'] Hmin'].
      assert (Ed : elem (pop_head last ls) d) by (exists (d :: t'); split; [exact Ht'|left; reflexivity]).
      destruct (beqb d last) eqn:Q.
      * apply beqb_eq in Q. subst d.
        destruct (IH (pop_head last ls) last S' E ltac:(lia)) as [A B]. split; [exact A|].
        intro x. rewrite B. split.
        -- intros [L K]. split; [exact L|]. apply El. right. exact K.
        -- intros [L K]. split; [exact L|]. apply El in K as [->|K]; [destruct (blt_irrefl _ L)|exact K].
      * destruct (IH (pop_head last ls) d S' E ltac:(lia)) as [A B].
        assert (Ld : blt last d).
        { assert (ble last d) as [->|L] by (apply Hmin, El; right; exact Ed); [|exact L].
          rewrite beqb_refl in Q. discriminate. }
        split.
        -- apply sorted_cons_intro; [exact A|]. intros y Hy. apply B in Hy. tauto.
        -- intro x. cbn [In]. rewrite B. split.
           ++ intros [<-|[L K]]; [split; [exact Ld|apply El; right; exact Ed]|].
              split; [exact (blt_trans _ _ _ Ld L)|apply El; right; exact K].
           ++ intros [L K]. apply El in K as [->|K]; [destruct (blt_irrefl _ L)|].
              destruct (Hmin' x K) as [->|L']; [left; reflexivity|right; split; assumption].
    + split; [constructor|]. intro x. split; [intros []|].
      intros [L K]. apply El in K as [->|[l [Hl Hx]]]; [destruct (blt_irrefl _ L)|].
      rewrite (min_head_none _ E l Hl) in Hx. destruct Hx.
Qed.

Lemma elem_filter_nonempty sets x : elem (filter nonempty sets) x <-> elem sets x.
Proof.
  split; intros [l [Hl Hx]]; exists l; (split; [|exact Hx]).
  - apply filter_In in Hl. tauto.
  - apply filter_In. split; [exact Hl|]. destruct l; [destruct Hx|reflexivity].
Qed.

Theorem union_spec_proof sets :
  Forall sorted sets ->
  sorted (union sets) /\ NoDup (union sets) /\ forall x, In x (union sets) <-> elem sets x.
Proof.
  intro HS.
  assert (Sa : Forall sorted (filter nonempty sets)).
  { rewrite Forall_forall in *. intros l Hl. apply filter_In in Hl. apply HS. tauto. }
  assert (R : sorted (union sets) /\ forall x, In x (union sets) <-> elem sets x).
  { unfold union. setoid_rewrite <- elem_filter_nonempty.
    destruct (filter nonempty sets) as [|s1 [|s2 r]] eqn:EA.
    - split; [constructor|]. intro x. split; [intros []|intros [l [[] _]]].
    - split; [inversion Sa; assumption|]. intro x. split.
      + intro K. exists s1. split; [left; reflexivity|exact K].
      + intros [l [[<-|[]] K]]. exact K.
    - destruct (min_head (s1 :: s2 :: r)) as [m|] eqn:E.
      + destruct (min_head_some _ m Sa E) as [[t Ht] Hmin].
        destruct (union_loop_spec (S (total_length (s1 :: s2 :: r))) _ m Sa E ltac:(lia)) as [A B].
        split.
        * apply sorted_cons_intro; [exact A|]. intros y Hy. apply B in Hy. tauto.
        * intro x. cbn [In]. rewrite B. split.
          -- intros [<-|[_ K]]; [exists (m :: t); split; [exact Ht|left; reflexivity]|exact K].
          -- intro K. destruct (Hmin x K) as [->|L]; [left; reflexivity|right; split; assumption].
      + exfalso. assert (s1 = []) as -> by (apply (min_head_none _ E); left; reflexivity).
        assert (In [] (filter nonempty sets)) as K by (rewrite EA; left; reflexivity).
        apply filter_In in K. destruct K as [_ K]. discriminate. }
  destruct R as [R1 R2]. split; [exact R1|]. split; [apply sorted_NoDup, R1|exact R2].
Qed.

Lemma remove_by_spec {T} (isz : T -> bool) s : remove_by isz s = filter (fun y => negb (isz y)) s.
Proof.
  induction s as [|x r IH]; [reflexivity|]. cbn [remove_by filter].
  destruct (isz x); cbn [negb]; [reflexivity|rewrite IH; reflexivity].
Qed.

Lemma map_outcome_map {X T U} (f : T -> outcome U) (h : X -> T) (g : X -> U) l :
  (forall x, In x l -> f (h x) = Ok (g x)) -> map_outcome f (map h l) = Ok (map g l).
Proof.
  induction l as [|x r IH]; intro H; [reflexivity|]. cbn [map_outcome map].
  rewrite H by (left; reflexivity). cbn [bind]. rewrite IH by (intros y Hy; apply H; right; exact Hy).
  reflexivity.
Qed.

Lemma map_outcome_ok {T U} (f : T -> outcome U) (g : T -> U) l :
  (forall x, In x l -> f x = Ok (g x)) -> map_outcome f l = Ok (map g l).
Proof. intro H. pose proof (map_outcome_map f (fun x => x) g l H) as E. rewrite map_id in E. exact E. Qed.

Lemma filter_combine_map {X U} (h : X -> bytes) (g : X -> U) (p : U -> bool) l :
  map fst (filter (fun q => p (snd q)) (combine (map h l) (map g l))) = map h (filter (fun x => p (g x)) l).
Proof.
  induction l as [|x r IH]; [reflexivity|]. cbn [map combine filter snd].
  destruct (p (g x)); cbn [map fst]; rewrite IH; reflexivity.
Qed.

Lemma map_fst_filter_combine {U} (l : list bytes) (g : bytes -> U) (p : U -> bool) :
  map fst (filter (fun q => p (snd q)) (combine l (map g l))) = filter (fun x => p (g x)) l.
Proof. pose proof (filter_combine_map (fun x => x) g p l) as E. rewrite !map_id in E. exact E. Qed.

(** on sets of packed valid digests: exactly the elements with a non-zero size, still sorted *)
Theorem remove_empty_spec_proof (ds : list digest) :
  Forall valid_digest ds -> sorted (map pack ds) ->
  exists r, remove_empty_blob (map pack ds) = Ok r /\ sorted r /\
    r = map pack (filter (fun d => negb (Z.eqb (d_size d) 0)) ds).
Proof.
  intros V S. unfold remove_empty_blob. rewrite Forall_forall in V.
  rewrite (map_outcome_map get_size_bytes pack d_size)
    by (intros d Hd; apply (pack_unpack_accessors d (V d Hd))).
  cbn [bind]. rewrite remove_by_spec, (filter_combine_map pack d_size (fun z => negb (Z.eqb z 0))).
  eexists. split; [reflexivity|]. split; [apply sorted_map_filter, S|reflexivity].
Qed.

Lemma NoDup_snoc {A} (l : list A) k : NoDup l -> ~ In k l -> NoDup (l ++ [k]).
Proof.
  induction 1 as [|x l Hx ND IH]; intro Hk; cbn [app].
  - constructor; [intros []|constructor].
  - constructor.
    + intro K. apply in_app_or in K as [K|[<-|[]]]; [contradiction|]. apply Hk. left. reflexivity.
    + apply IH. intro K. apply Hk. right. exact K.
Qed.

Section PartitionSpec.
  Context {T K : Type}.
  Variable keqb : K -> K -> bool.
  Hypothesis keqb_eq : forall a b, keqb a b = true <-> a = b.
  Variable key : T -> K.

  (** keys in the order of their first occurrence *)
  Definition fstep (acc : list K) (k : K) : list K := if existsb (keqb k) acc then acc else acc ++ [k].
  Definition firsts (l : list K) : list K := fold_left fstep l [].
  Definition part_of (s : list T) (k : K) : list T := filter (fun x => keqb (key x) k) s.

  Lemma keqb_refl a : keqb a a = true.
  Proof. apply keqb_eq. reflexivity. Qed.

  Lemma existsb_keqb k l : existsb (keqb k) l = true <-> In k l.
  Proof.
    rewrite existsb_exists. split.
    - intros [y [Hy E]]. apply keqb_eq in E. subst. exact Hy.
    - intro H. exists k. split; [exact H|apply keqb_refl].
  Qed.

  Lemma fold_fstep_In l : forall acc k, In k (fold_left fstep l acc) <-> In k acc \/ In k l.
  Proof.
    induction l as [|x l IH]; intros acc k; cbn [fold_left In]; [tauto|]. rewrite IH. unfold fstep.
    destruct (existsb (keqb x) acc) eqn:E; [|rewrite in_app_iff; cbn [In]; clear; tauto].
    apply existsb_keqb in E. split; [clear; tauto|]. intros [H|[<-|H]]; auto.
  Qed.

  Lemma firsts_In l k : In k (firsts l) <-> In k l.
  Proof. unfold firsts. rewrite fold_fstep_In. cbn [In]. tauto. Qed.

  Lemma add_to_map k x (F : K -> list T) r :
    NoDup r ->
    add_to keqb k x (map (fun k' => (k', F k')) r) =
    if existsb (keqb k) r
    then map (fun k' => (k', if keqb k k' then F k' ++ [x] else F k')) r
    else map (fun k' => (k', F k')) r ++ [(k, [x])].
  Proof.
    induction r as [|k' r IH]; intro ND; [reflexivity|].
    inversion ND as [|? ? Hn ND']; subst. cbn [map add_to existsb].
    destruct (keqb k k') eqn:E.
    - cbn [orb]. f_equal. apply keqb_eq in E. subst k'.
      apply map_ext_in. intros k'' Hk. destruct (keqb k k'') eqn:E2; [|reflexivity].
      apply keqb_eq in E2. subst. contradiction.
    - cbn [orb]. rewrite IH by exact ND'. destruct (existsb (keqb k) r); reflexivity.
  Qed.

  Lemma part_of_snoc p x k' :
    part_of (p ++ [x]) k' = if keqb (key x) k' then part_of p k' ++ [x] else part_of p k'.
  Proof.
    unfold part_of. rewrite filter_app. cbn [filter].
    destruct (keqb (key x) k'); [reflexivity|apply app_nil_r].
  Qed.

  Lemma fstep_NoDup ks k : NoDup ks -> NoDup (fstep ks k).
  Proof.
    intro ND. unfold fstep. destruct (existsb (keqb k) ks) eqn:E; [exact ND|].
    assert (~ In k ks) as Hn by (intro H; apply existsb_keqb in H; congruence).
    apply NoDup_snoc; assumption.
  Qed.

  Lemma fold_add_to s : forall p ks,
    NoDup ks -> (forall y, In y p -> In (key y) ks) ->
    fold_left (fun parts x => add_to keqb (key x) x parts) s (map (fun k => (k, part_of p k)) ks) =
    map (fun k => (k, part_of (p ++ s) k)) (fold_left fstep (map key s) ks).
  Proof.
    induction s as [|x s IH]; intros p ks ND Hcov.
    - cbn. rewrite app_nil_r. reflexivity.
    - cbn [fold_left map]. rewrite add_to_map by exact ND.
      assert (Estep : (if existsb (keqb (key x)) ks
                       then map (fun k' => (k', if keqb (key x) k' then part_of p k' ++ [x] else part_of p k')) ks
                       else map (fun k' => (k', part_of p k')) ks ++ [(key x, [x])])
                      = map (fun k => (k, part_of (p ++ [x]) k)) (fstep ks (key x))).
      { unfold fstep. destruct (existsb (keqb (key x)) ks) eqn:E.
        - apply map_ext. intro k'. rewrite part_of_snoc. reflexivity.
        - rewrite map_app. cbn [map]. f_equal.
          + apply map_ext_in. intros k' Hk. rewrite part_of_snoc.
            destruct (keqb (key x) k') eqn:E2; [|reflexivity].
            apply keqb_eq in E2. subst k'. apply existsb_keqb in Hk. congruence.
          + rewrite part_of_snoc, keqb_refl. f_equal. f_equal.
            unfold part_of. destruct (filter (fun x0 => keqb (key x0) (key x)) p) as [|y l] eqn:F; [reflexivity|].
            assert (In y (filter (fun x0 => keqb (key x0) (key x)) p)) as Hy by (rewrite F; left; reflexivity).
            apply filter_In in Hy as [Hy1 Hy2]. apply keqb_eq in Hy2.
            specialize (Hcov y Hy1). rewrite Hy2 in Hcov. apply existsb_keqb in Hcov. congruence. }
      rewrite Estep. rewrite IH.
      + rewrite <- app_assoc. reflexivity.
      + apply fstep_NoDup, ND.
      + intros y Hy. apply in_app_or in Hy as [Hy|[<-|[]]].
        * unfold fstep. destruct (existsb (keqb (key x)) ks); [apply Hcov, Hy|apply in_or_app; left; apply Hcov, Hy].
        * unfold fstep. destruct (existsb (keqb (key x)) ks) eqn:E; [apply existsb_keqb, E|apply in_or_app; right; left; reflexivity].
  Qed.

  Theorem partition_by_spec s :
    partition_by keqb key s = map (part_of s) (firsts (map key s)).
  Proof.
    unfold partition_by, firsts.
    pose proof (fold_add_to s [] [] (NoDup_nil K) ltac:(intros y [])) as H. cbn [map app] in H.
    rewrite H, map_map. reflexivity.
  Qed.
End PartitionSpec.

(** on packed valid digests: one set per instance name, in the order of first occurrence,
    each the sub-list (hence sorted) of the digests with that instance name *)
Theorem partition_spec_proof (ds : list digest) :
  Forall valid_digest ds ->
  partition_by_instance_name (map pack ds) =
  Ok (map (fun i => map pack (filter (fun d => beqb (d_inst d) i) ds)) (firsts beqb (map d_inst ds))).
Proof.
  intro V. unfold partition_by_instance_name. rewrite Forall_forall in V.
  rewrite (map_outcome_map get_instance_name pack d_inst)
    by (intros d Hd; apply (pack_unpack_accessors d (V d Hd))).
  cbn [bind]. f_equal.
  rewrite (partition_by_spec beqb beqb_eq snd).
  assert (Ek : map snd (combine (map pack ds) (map d_inst ds)) = map d_inst ds).
  { clear. induction ds as [|d r IH]; [reflexivity|]. cbn. rewrite IH. reflexivity. }
  rewrite Ek, map_map. apply map_ext. intro i. unfold part_of.
  apply (filter_combine_map pack d_inst (fun j => beqb j i)).
Qed.
