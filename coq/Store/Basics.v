(** Basic facts about the store model used by several properties: lists,
    byte slices, block lookup, the device, the thread table, the index, the
    frame of the allocation path.  None of them needs an invariant. *)
From Coq Require Import List NArith ZArith Bool Arith Lia Permutation.
From BBS Require Import Store.Model Store.WfTids.
Import ListNotations.
Local Open Scope N_scope.

Lemma NoDup_app_l {T} (l1 l2 : list T) : NoDup (l1 ++ l2) -> NoDup l1.
Proof.
  induction l1 as [|a t IH]; cbn [app]; [constructor|].
  intros ND. inversion ND as [|? ? Hn ND']; subst. constructor; [|auto].
  intros H. apply Hn. apply in_or_app. left. exact H.
Qed.
Lemma NoDup_app_r {T} (l1 l2 : list T) : NoDup (l1 ++ l2) -> NoDup l2.
Proof.
  induction l1 as [|a t IH]; cbn [app]; [auto|].
  intros ND. inversion ND; subst. auto.
Qed.
Lemma NoDup_app_disj {T} (l1 l2 : list T) x : NoDup (l1 ++ l2) -> In x l1 -> In x l2 -> False.
Proof.
  induction l1 as [|a t IH]; cbn [app]; [intros _ []|].
  intros ND. inversion ND as [|? ? Hn ND']; subst. intros [H|H] H2.
  - subst. apply Hn. apply in_or_app. right. exact H2.
  - exact (IH ND' H H2).
Qed.
Lemma NoDup_map_inj {A B} (f : A -> B) (l : list A) x y :
  NoDup (map f l) -> In x l -> In y l -> f x = f y -> x = y.
Proof.
  induction l as [|a l IH]; intros ND Hx Hy E; [destruct Hx|].
  cbn [map] in ND. inversion ND as [|u v Hn ND']; subst.
  destruct Hx as [->|Hx], Hy as [->|Hy]; auto.
  - exfalso. apply Hn. rewrite E. apply in_map. exact Hy.
  - exfalso. apply Hn. rewrite <- E. apply in_map. exact Hx.
Qed.
Lemma filter_id {T} (f : T -> bool) l : (forall x, In x l -> f x = true) -> filter f l = l.
Proof.
  induction l as [|x t IH]; cbn [filter]; [reflexivity|].
  intros H. rewrite (H x (or_introl eq_refl)). rewrite IH; [reflexivity|].
  intros y Hy. apply H. right. exact Hy.
Qed.
Lemma skipn_add {T} a b (l : list T) : skipn (a + b) l = skipn b (skipn a l).
Proof.
  revert l; induction a as [|a IH]; intros l; cbn [Nat.add skipn]; [reflexivity|].
  destruct l as [|x l]; [now rewrite skipn_nil|apply IH].
Qed.

Lemma existsb_eqb_in x l : existsb (Nat.eqb x) l = true <-> In x l.
Proof.
  rewrite existsb_exists. split.
  - intros [y [H1 H2]]. apply Nat.eqb_eq in H2. subst. exact H1.
  - intros H. exists x. split; [exact H|apply Nat.eqb_refl].
Qed.
Lemma insert_nat_in x n l : In x (insert_nat n l) <-> x = n \/ In x l.
Proof.
  induction l as [|h t IH]; cbn [insert_nat In]; [intuition|].
  destruct (Nat.leb n h); cbn [In]; [intuition|]. rewrite IH. intuition.
Qed.
Lemma sort_nat_in x l : In x (sort_nat l) <-> In x l.
Proof.
  unfold sort_nat. induction l as [|h t IH]; cbn [fold_right In]; [tauto|].
  rewrite insert_nat_in, IH. intuition.
Qed.

Lemma enumerate_in {T} (l : list T) : forall n p x,
  In (p, x) (enumerate n l) -> (n <= p)%nat /\ nth_error l (p - n) = Some x.
Proof.
  induction l as [|y t IH]; intros n p x; cbn [enumerate In]; [tauto|].
  intros [E|H].
  - inversion E; subst. rewrite Nat.sub_diag. split; [lia|reflexivity].
  - apply IH in H. destruct H as [H1 H2]. split; [lia|].
    replace (p - n)%nat with (S (p - S n)) by lia. exact H2.
Qed.
Lemma enumerate_nth {T} (l : list T) : forall n p x,
  nth_error l p = Some x -> In ((n + p)%nat, x) (enumerate n l).
Proof.
  induction l as [|y t IH]; intros n p x H; [destruct p; discriminate|].
  destruct p; cbn [nth_error enumerate In] in *.
  - inversion H; subst. left. f_equal. lia.
  - right. replace (n + S p)%nat with (S n + p)%nat by lia. apply IH. exact H.
Qed.

Lemma slice_eq bytes off len : slice bytes off len = firstn len (skipn off bytes).
Proof. destruct bytes; reflexivity. Qed.
Lemma slice_length bytes off len :
  (off + len <= length bytes)%nat -> length (slice bytes off len) = len.
Proof. intros H. rewrite slice_eq, firstn_length, skipn_length. lia. Qed.

Lemma bytes_eqb_refl a : bytes_eqb a a = true.
Proof. induction a as [|x a IH]; cbn [bytes_eqb]; [reflexivity|]. rewrite N.eqb_refl. exact IH. Qed.
Lemma bytes_eqb_eq a : forall b, bytes_eqb a b = true <-> a = b.
Proof.
  split; [|intros <-; apply bytes_eqb_refl]. revert b.
  induction a as [|x a IH]; intros [|y b] H; cbn [bytes_eqb] in H; try discriminate; [reflexivity|].
  apply andb_prop in H. destruct H as [H1 H2]. apply N.eqb_eq in H1. subst. f_equal. auto.
Qed.

Lemma find_uid_some uid l b : find_uid uid l = Some b -> In b l /\ b_uid b = uid.
Proof.
  induction l as [|x t IH]; cbn [find_uid]; [discriminate|].
  destruct (Nat.eqb (b_uid x) uid) eqn:E.
  - intros H. inversion H; subst. apply Nat.eqb_eq in E. split; [left; reflexivity | exact E].
  - intros H. destruct (IH H) as [H1 H2]. split; [right; exact H1 | exact H2].
Qed.
Lemma find_uid_none uid l : find_uid uid l = None -> ~ In uid (map b_uid l).
Proof.
  induction l as [|x t IH]; cbn [find_uid map]; [intros _ []|].
  destruct (Nat.eqb (b_uid x) uid) eqn:E; [discriminate|].
  intros H [H1|H1]; [apply Nat.eqb_neq in E; congruence | exact (IH H H1)].
Qed.
Lemma find_uid_nodup uid l b : NoDup (map b_uid l) -> In b l -> b_uid b = uid -> find_uid uid l = Some b.
Proof.
  induction l as [|x t IH]; cbn [find_uid map]; [intros _ []|].
  intros ND [H|H] Hu.
  - subst x. rewrite Hu, Nat.eqb_refl. reflexivity.
  - inversion ND as [|? ? Hn ND']; subst. destruct (Nat.eqb (b_uid x) (b_uid b)) eqn:E.
    + apply Nat.eqb_eq in E. exfalso. apply Hn. rewrite E. apply in_map. exact H.
    + apply IH; auto.
Qed.
Lemma find_uid_app uid l1 l2 :
  find_uid uid (l1 ++ l2) =
  match find_uid uid l1 with Some b => Some b | None => find_uid uid l2 end.
Proof.
  induction l1 as [|a l1 IH]; cbn [find_uid app]; [reflexivity|].
  destruct (Nat.eqb (b_uid a) uid); auto.
Qed.
Lemma map_uid_length f uid l : length (map_uid f uid l) = length l.
Proof.
  induction l as [|b t IH]; cbn [map_uid length]; [reflexivity|].
  destruct (Nat.eqb (b_uid b) uid); cbn [length]; [reflexivity | rewrite IH; reflexivity].
Qed.
Lemma map_uid_none f uid l : ~ In uid (map b_uid l) -> map_uid f uid l = l.
Proof.
  induction l as [|x t IH]; cbn [map_uid map]; [reflexivity|].
  intros H. destruct (Nat.eqb (b_uid x) uid) eqn:E.
  - apply Nat.eqb_eq in E. exfalso. apply H. left. exact E.
  - rewrite IH; [reflexivity|]. intros H1. apply H. right. exact H1.
Qed.

Lemma map_uid_map f uid l :
  NoDup (map b_uid l) ->
  map_uid f uid l = map (fun x => if Nat.eqb (b_uid x) uid then f x else x) l.
Proof.
  induction l as [|a l IH]; intros ND; [reflexivity|].
  cbn [map] in ND. inversion ND as [|u v Hn ND']; subst.
  cbn [map_uid map]. destruct (Nat.eqb (b_uid a) uid) eqn:E.
  - f_equal. rewrite <- (map_id l) at 1. apply map_ext_in. intros x Hx.
    destruct (Nat.eqb (b_uid x) uid) eqn:E2; [|reflexivity].
    exfalso. apply Nat.eqb_eq in E. apply Nat.eqb_eq in E2.
    apply Hn. rewrite E, <- E2. apply in_map. exact Hx.
  - f_equal. apply IH. exact ND'.
Qed.

Definition not_uid (uid : nat) (z : block) : bool := negb (Nat.eqb (b_uid z) uid).
Lemma In_filter_uid uid l x : In x (filter (not_uid uid) l) <-> In x l /\ b_uid x <> uid.
Proof.
  rewrite filter_In. unfold not_uid. rewrite negb_true_iff, Nat.eqb_neq. reflexivity.
Qed.
Lemma filter_uid_perm uid l b : NoDup (map b_uid l) -> find_uid uid l = Some b ->
  Permutation l (b :: filter (not_uid uid) l).
Proof.
  induction l as [|x t IH]; cbn [find_uid filter map]; [discriminate|].
  intros ND. inversion ND as [|? ? Hn ND']; subst. unfold not_uid at 1.
  destruct (Nat.eqb (b_uid x) uid) eqn:E; cbn [negb].
  - intros H. inversion H; subst. apply Nat.eqb_eq in E.
    rewrite filter_id; [apply Permutation_refl|].
    intros y Hy. unfold not_uid.
    rewrite negb_true_iff, Nat.eqb_neq. intros Hx. apply Hn. rewrite E, <- Hx. apply in_map. exact Hy.
  - intros H. specialize (IH ND' H). rewrite perm_swap. apply perm_skip. exact IH.
Qed.

(** what the data invariants see of a block: all but its use count *)
Definition bview (b : block) : nat * nat * N := (b_uid b, b_region b, b_cursor b).

Lemma bview_inj b b' : bview b' = bview b ->
  b_uid b' = b_uid b /\ b_region b' = b_region b /\ b_cursor b' = b_cursor b.
Proof. unfold bview. intros H. inversion H. auto. Qed.
Lemma map_bview_uid l : map b_uid l = map (fun v => fst (fst v)) (map bview l).
Proof. rewrite map_map. reflexivity. Qed.
Lemma map_bview_region l : map b_region l = map (fun v => snd (fst v)) (map bview l).
Proof. rewrite map_map. reflexivity. Qed.
Lemma map_uid_view f u l : (forall b, bview (f b) = bview b) ->
  map bview (map_uid f u l) = map bview l.
Proof.
  intros Hf. induction l as [|b l IH]; cbn [map_uid map]; [reflexivity|].
  destruct (Nat.eqb (b_uid b) u); cbn [map]; [rewrite Hf | rewrite IH]; reflexivity.
Qed.

Lemma dev_get_set d r x r' :
  dev_get (dev_set d r x) r' = if Nat.eqb r' r then x else dev_get d r'.
Proof.
  induction d as [|[r0 b0] d IH]; cbn [dev_set dev_get].
  - destruct (Nat.eqb r' r); reflexivity.
  - destruct (Nat.eqb r r0) eqn:E; cbn [dev_get].
    + apply Nat.eqb_eq in E. subst r0. destruct (Nat.eqb r' r); reflexivity.
    + destruct (Nat.eqb r' r0) eqn:E2.
      * apply Nat.eqb_eq in E2. subst r0. rewrite Nat.eqb_sym, E. reflexivity.
      * exact IH.
Qed.
Lemma zeros_length n : length (zeros n) = N.to_nat n.
Proof. unfold zeros. apply repeat_length. Qed.

Lemma thr_get_in ts tid t : thr_get ts tid = Some t -> In (tid, t) ts.
Proof.
  induction ts as [|[i t0] r IH]; cbn [thr_get]; [discriminate|].
  destruct (Nat.eqb i tid) eqn:E.
  - apply Nat.eqb_eq in E. intros H. inversion H; subst. left. reflexivity.
  - intros H. right. auto.
Qed.
Lemma thr_get_none ts tid : thr_get ts tid = None -> ~ In tid (map fst ts).
Proof.
  induction ts as [|[i t0] r IH]; cbn [thr_get map fst]; [intros _ []|].
  destruct (Nat.eqb i tid) eqn:E; [discriminate|]. apply Nat.eqb_neq in E.
  intros H [X|X]; [congruence | exact (IH H X)].
Qed.
Lemma thr_del_notin ts tid : ~ In tid (map fst ts) -> thr_del ts tid = ts.
Proof.
  intros H. unfold thr_del. apply filter_id. intros [i t] Hx. cbn [fst].
  apply negb_true_iff. apply Nat.eqb_neq. intros ->. apply H.
  change tid with (fst (tid, t)). apply in_map. exact Hx.
Qed.
Lemma thr_del_none ts tid : thr_get ts tid = None -> thr_del ts tid = ts.
Proof. intros H. apply thr_del_notin, thr_get_none, H. Qed.
Lemma thr_del_in ts tid i t : In (i, t) (thr_del ts tid) <-> In (i, t) ts /\ i <> tid.
Proof.
  unfold thr_del. rewrite filter_In. cbn [fst]. rewrite negb_true_iff, Nat.eqb_neq. reflexivity.
Qed.
Lemma thr_del_tids ts tid x : In x (map fst (thr_del ts tid)) <-> In x (map fst ts) /\ x <> tid.
Proof.
  rewrite !in_map_iff. split.
  - intros [[i t] [E H]]. cbn [fst] in E. subst i. apply thr_del_in in H. destruct H as [H1 H2].
    split; [exists (x, t); split; [reflexivity | exact H1] | exact H2].
  - intros [[[i t] [E H]] Hn]. cbn [fst] in E. subst i. exists (x, t). split; [reflexivity|].
    apply thr_del_in. split; assumption.
Qed.
Lemma thr_del_nodup ts tid : NoDup (map fst ts) -> NoDup (map fst (thr_del ts tid)).
Proof.
  induction ts as [|[i t] r IH]; cbn [thr_del filter map fst]; [constructor|].
  intros ND. inversion ND as [|? ? Hn ND']; subst.
  destruct (negb (Nat.eqb i tid)); cbn [map fst]; [|apply IH; exact ND'].
  constructor; [|apply IH; exact ND']. intros X. apply Hn.
  apply (thr_del_tids r tid i) in X. apply X.
Qed.
Lemma thr_flat_map_split {X} (f : thread -> list X) ts tid t :
  NoDup (map fst ts) -> thr_get ts tid = Some t ->
  Permutation (flat_map (fun e => f (snd e)) ts) (f t ++ flat_map (fun e => f (snd e)) (thr_del ts tid)).
Proof.
  induction ts as [|[i t0] r IH]; cbn [thr_get]; [discriminate|].
  intros ND. inversion ND as [|? ? Hn ND']; subst. cbn [fst] in Hn.
  unfold thr_del. cbn [filter fst flat_map snd]. destruct (Nat.eqb i tid) eqn:E; cbn [negb].
  - apply Nat.eqb_eq in E. subst i. intros H. inversion H; subst.
    fold (thr_del r tid). rewrite thr_del_notin by exact Hn. apply Permutation_refl.
  - intros H. fold (thr_del r tid). cbn [flat_map snd].
    rewrite (IH ND' H). apply Permutation_app_swap_app.
Qed.

Lemma thr_get_del ts tid tid' :
  thr_get (thr_del ts tid) tid' = if Nat.eqb tid tid' then None else thr_get ts tid'.
Proof.
  induction ts as [|[a v] ts IH]; cbn [thr_del filter thr_get fst].
  - destruct (Nat.eqb tid tid'); reflexivity.
  - destruct (Nat.eqb a tid) eqn:E; cbn [negb].
    + apply Nat.eqb_eq in E; subst a. fold (thr_del ts tid). rewrite IH.
      destruct (Nat.eqb tid tid'); reflexivity.
    + fold (thr_del ts tid). cbn [thr_get]. rewrite IH.
      destruct (Nat.eqb a tid') eqn:E2; [|reflexivity].
      apply Nat.eqb_eq in E2; subst a. rewrite Nat.eqb_sym, E. reflexivity.
Qed.
Lemma thr_get_set s tid t tid' :
  thr_get (s_threads (thr_set s tid t)) tid' = if Nat.eqb tid tid' then Some t else thr_get (s_threads s) tid'.
Proof.
  unfold thr_set, upd_threads. cbn [s_threads thr_get]. rewrite thr_get_del.
  destruct (Nat.eqb tid tid'); reflexivity.
Qed.
Lemma thr_get_rm s tid tid' :
  thr_get (s_threads (thr_rm s tid)) tid' = if Nat.eqb tid tid' then None else thr_get (s_threads s) tid'.
Proof. unfold thr_rm, upd_threads. cbn [s_threads]. apply thr_get_del. Qed.
Lemma index_thr_set s tid t : s_index (thr_set s tid t) = s_index s. Proof. reflexivity. Qed.
Lemma index_thr_rm s tid : s_index (thr_rm s tid) = s_index s. Proof. reflexivity. Qed.

Lemma wf_tids_from_cons seen e t :
  wf_tids_from seen (e :: t) = true ->
  (forall tid, start_tid e = Some tid -> ~ In tid seen) /\
  wf_tids_from (match start_tid e with Some tid => tid :: seen | None => seen end) t = true.
Proof.
  cbn [wf_tids_from]. destruct (start_tid e) as [tid|]; [|split; [discriminate|assumption]].
  intros WT. apply andb_true_iff in WT. destruct WT as [NI WT]. split; [|exact WT].
  intros t0 E HI. inversion E; subst t0. apply existsb_eqb_in in HI. rewrite HI in NI. discriminate.
Qed.
Lemma wf_tids_from_prefix : forall es1 es2 seen,
  wf_tids_from seen (es1 ++ es2) = true -> wf_tids_from seen es1 = true.
Proof.
  induction es1 as [|e t IH]; intros es2 seen H; [reflexivity|].
  cbn [app wf_tids_from] in *. destruct (start_tid e).
  - apply andb_true_iff in H. destruct H as [H1 H2]. rewrite H1. cbn [andb]. eapply IH; eauto.
  - eapply IH; eauto.
Qed.

(** what pin, unpin, write_block and the allocation path leave alone *)
Definition frame_tin (s s' : state) : Prop :=
  s_threads s' = s_threads s /\ s_index s' = s_index s /\ s_negs s' = s_negs s.

Lemma frame_tin_refl s : frame_tin s s.
Proof. repeat split. Qed.
Lemma frame_tin_trans s1 s2 s3 : frame_tin s1 s2 -> frame_tin s2 s3 -> frame_tin s1 s3.
Proof. intros [a1 [a2 a3]] [b1 [b2 b3]]. repeat split; congruence. Qed.

Lemma frame_pin s u : frame_tin s (pin s u). Proof. repeat split. Qed.
Lemma frame_unpin c s u : frame_tin s (unpin c s u).
Proof.
  unfold unpin. destruct (find_uid u (s_blocks s)); [repeat split|].
  destruct (find_uid u (s_zombies s)); [|apply frame_tin_refl].
  destruct (Nat.leb (b_use b) 1); [|repeat split].
  destruct (in_memory c); repeat split.
Qed.
Lemma frame_write_block s u off d : frame_tin s (write_block s u off d).
Proof. unfold write_block. destruct (find_block s u); repeat split. Qed.
Lemma frame_pop_front c s : frame_tin s (pop_front c s).
Proof.
  unfold pop_front. destruct (s_blocks s); [apply frame_tin_refl|].
  destruct (Nat.leb (b_use b) 1); [|repeat split].
  destruct (in_memory c); repeat split.
Qed.
Lemma frame_push_back c s s' : push_back c s = Some s' -> frame_tin s s'.
Proof.
  unfold push_back, new_block. destruct (in_memory c).
  - intros H. injection H as <-. repeat split.
  - destruct (s_free s); [discriminate|]. intros H. injection H as <-. repeat split.
Qed.
Lemma frame_fbs_release c fuel : forall s, frame_tin s (fbs_release c fuel s).
Proof.
  induction fuel as [|f IH]; intros s; cbn [fbs_release]; [apply frame_tin_refl|].
  destruct (s_released s <? s_tbr s); [|apply frame_tin_refl].
  eapply frame_tin_trans; [|apply IH].
  eapply frame_tin_trans; [apply (frame_pop_front c s)|].
  destruct (s_old (pop_front c s)); [destruct (s_cur (pop_front c s))|]; repeat split.
Qed.
Lemma frame_fbs_grow c fuel : forall s b s', fbs_grow c fuel s = (b, s') -> frame_tin s s'.
Proof.
  induction fuel as [|f IH]; intros s b s'; cbn [fbs_grow].
  - intros H; injection H as <- <-; apply frame_tin_refl.
  - destruct (grow_new c (s_cur s) (s_new s)); [|intros H; injection H as <- <-; apply frame_tin_refl].
    destruct (push_back c s) as [s1|] eqn:E; [|intros H; injection H as <- <-; apply frame_tin_refl].
    intros H. apply IH in H. apply frame_push_back in E.
    eapply frame_tin_trans; [exact E|]. eapply frame_tin_trans; [|exact H]. repeat split.
Qed.
Lemma frame_fbs_rotate c fuel size : forall s b s', fbs_rotate c fuel size s = (b, s') -> frame_tin s s'.
Proof.
  induction fuel as [|f IH]; intros s b s'; cbn [fbs_rotate].
  - intros H; injection H as <- <-; apply frame_tin_refl.
  - destruct (has_space c s (s_old s + s_cur s) size); [intros H; injection H as <- <-; apply frame_tin_refl|].
    destruct (Nat.ltb (desired_new c) (s_new s)).
    + intros H. apply IH in H. eapply frame_tin_trans; [|exact H]. repeat split.
    + destruct (push_back c s) as [s1|] eqn:E; [|intros H; injection H as <- <-; apply frame_tin_refl].
      intros H. apply IH in H. apply frame_push_back in E.
      eapply frame_tin_trans; [exact E|]. eapply frame_tin_trans; [|exact H].
      destruct (grow_cur c (s_cur s1)); [repeat split|].
      match goal with |- context [if ?b then _ else _] => destruct b end; [|repeat split].
      match goal with |- context [pop_front c ?x] => apply (frame_pop_front c x) end.
Qed.
Lemma frame_fbs_pick c fuel size : forall s idx s', fbs_pick c fuel size s = Some (idx, s') -> frame_tin s s'.
Proof.
  induction fuel as [|f IH]; intros s idx s'; cbn [fbs_pick]; [discriminate|].
  destruct (s_attempts s) as [|a]; [|destruct (s_aidx s) as [i|]].
  - intros H. apply IH in H. eapply frame_tin_trans; [|exact H]. repeat split.
  - destruct (has_space c s (s_old s + s_cur s + i) size).
    + intros H; injection H as <- <-. repeat split.
    + intros H. apply IH in H. eapply frame_tin_trans; [|exact H]. repeat split.
  - intros H. apply IH in H. eapply frame_tin_trans; [|exact H]. repeat split.
Qed.

Definition err_nz {T} (r : res T) : Prop := match r with Err e => e <> 0%Z | Ok _ => True end.

Lemma fbws_frame c s size r s' :
  find_block_with_space c s size = (r, s') -> frame_tin s s' /\ err_nz r.
Proof.
  unfold find_block_with_space. destruct (c_bs c <? size).
  { intros H; injection H as <- <-. split; [apply frame_tin_refl|discriminate]. }
  pose proof (frame_fbs_release c (S (length (s_blocks s))) s) as S1.
  destruct (fbs_grow c (S (c_cur c + c_new c)) (fbs_release c (S (length (s_blocks s))) s)) as [b2 s2] eqn:E2.
  apply frame_fbs_grow in E2. pose proof (frame_tin_trans _ _ _ S1 E2) as S2.
  destruct b2.
  2:{ intros H; injection H as <- <-. split; [exact S2|discriminate]. }
  destruct (fbs_rotate c (fuel_of s2) size s2) as [b3 s3] eqn:E3.
  apply frame_fbs_rotate in E3. pose proof (frame_tin_trans _ _ _ S2 E3) as S3.
  destruct b3.
  2:{ intros H; injection H as <- <-. split; [exact S3|discriminate]. }
  destruct (fbs_pick c (S (S (s_new s3)) * 2) size s3) as [[idx s4]|] eqn:E4.
  - apply frame_fbs_pick in E4. intros H; injection H as <- <-.
    split; [eapply frame_tin_trans; eauto|exact I].
  - intros H; injection H as <- <-. split; [exact S3|discriminate].
Qed.
Lemma ocn_put_frame c s size r s' :
  ocn_put c s size = (r, s') -> frame_tin s s' /\ err_nz r.
Proof.
  unfold ocn_put. destruct (find_block_with_space c s size) as [r0 s0] eqn:E.
  apply fbws_frame in E. destruct E as [S0 N0]. destruct r0 as [idx|e0].
  - destruct (nth_error (s_blocks s0) idx).
    + intros H; injection H as <- <-. split; [|exact I].
      eapply frame_tin_trans; [exact S0|]. repeat split.
    + intros H; injection H as <- <-. split; [exact S0|discriminate].
  - intros H; injection H as <- <-. split; [exact S0|exact N0].
Qed.
Lemma finalize_frame c s wr ok r s' :
  finalize c s wr ok = (r, s') -> frame_tin s s' /\ err_nz r.
Proof.
  unfold finalize. pose proof (frame_unpin c s (wr_uid wr)) as S1.
  destruct (negb ok).
  { intros H; injection H as <- <-. split; [exact S1|discriminate]. }
  destruct (wr_abs wr <? s_tbr (unpin c s (wr_uid wr))).
  { intros H; injection H as <- <-. split; [exact S1|discriminate]. }
  intros H; injection H as <- <-. split; [exact S1|exact I].
Qed.

Lemma key_eqb_eq a b : key_eqb a b = true <-> a = b.
Proof.
  destruct a as [a1 a2], b as [b1 b2]. unfold key_eqb. cbn [fst snd].
  rewrite andb_true_iff, !Nat.eqb_eq. split; [intros []; congruence|].
  intros H. inversion H. auto.
Qed.

Lemma newest_in cands : forall best l, newest cands best = Some l -> In l cands \/ best = Some l.
Proof.
  induction cands as [|c t IH]; intros best l H; cbn [newest] in H.
  - right; exact H.
  - apply IH in H. destruct H as [H|H]; [left; right; exact H|].
    destruct best as [b|].
    + destruct (loc_older b c); inversion H; subst; [left; left; reflexivity|right; reflexivity].
    + inversion H; subst. left; left; reflexivity.
Qed.
Lemma newest_some cands : forall best, (cands <> [] \/ best <> None) -> newest cands best <> None.
Proof.
  induction cands as [|x t IH]; intros best H; cbn [newest].
  - destruct H; congruence.
  - apply IH. right. destruct best as [b|]; [destruct (loc_older b x)|]; discriminate.
Qed.

Lemma index_get_some s k l : index_get s k = Some l -> In (k, l) (s_index s) /\ loc_valid s l = true.
Proof.
  unfold index_get. intros H. apply newest_in in H. destruct H as [H|H]; [|discriminate].
  apply in_map_iff in H. destruct H as [[k' l'] [E H]]. cbn [snd] in E. subst l'.
  apply filter_In in H. destruct H as [H1 H2]. cbn [fst snd] in H2.
  apply andb_true_iff in H2. destruct H2 as [H2 H3].
  apply key_eqb_eq in H2. subst. split; assumption.
Qed.
Lemma index_get_of_valid s k l : In (k, l) (s_index s) -> loc_valid s l = true -> index_get s k <> None.
Proof.
  intros H V. unfold index_get. apply newest_some. left. intros E.
  assert (I : In l (map snd (filter (fun e => key_eqb (fst e) k && loc_valid s (snd e)) (s_index s)))).
  { apply in_map_iff. exists (k, l). split; [reflexivity|]. apply filter_In. split; [exact H|].
    cbn [fst snd]. rewrite V, andb_true_r. apply key_eqb_eq. reflexivity. }
  rewrite E in I. exact I.
Qed.
Lemma least_specific_some s ks k l : least_specific s ks = Some (k, l) -> In k ks /\ index_get s k = Some l.
Proof.
  induction ks as [|k0 t IH]; cbn [least_specific]; [discriminate|].
  destruct (index_get s k0) eqn:E.
  - intros H. injection H as <- <-. split; [left; reflexivity|exact E].
  - intros H. apply IH in H. destruct H. split; [right|]; assumption.
Qed.
Lemma least_specific_none s ks : least_specific s ks = None -> forall k, In k ks -> index_get s k = None.
Proof.
  induction ks as [|k0 t IH]; cbn [least_specific]; [intros _ ? []|].
  destruct (index_get s k0) eqn:E; [discriminate|]. intros H k [<-|Hk]; auto.
Qed.

(** A lookup only ever resolves to a stored location of exactly that key
    which lies in a listed block at or above the quarantine boundary. *)
Theorem index_get_sound s k l :
  index_get s k = Some l ->
  In (k, l) (map (fun e => (k, snd e)) (filter (fun e => key_eqb (fst e) k) (s_index s)))
  /\ loc_valid s l = true.
Proof.
  intros H. apply index_get_some in H. destruct H as [Hin Hv]. split; [|exact Hv].
  apply in_map_iff. exists (k, l). split; [reflexivity|].
  apply filter_In. split; [exact Hin|]. apply key_eqb_eq. reflexivity.
Qed.
