(** C05: the early-stamping bookkeeping never reports clause 1 on
    the model: the inductive invariant relating the monitor's bookkeeping to
    the model state. *)
From Coq Require Import Relations.
From Coq Require Import ZifyBool.
From BBS Require Import Common.Sx Store.Model Store.WfTids Store.Basics Run.RStore Run.R01 Run.R05.
From BBS Require Import Store.P05Cnt Store.P05Ops Store.P05Step Store.P05Mon.
Import ListNotations.
Open Scope nat_scope.

(** no negative integrity verdict before the first injected corruption
    (this is what C01's integrity invariant provides) *)
Fixpoint integ (w : world) (s : state) (es : list op) : Prop :=
  match es with
  | [] => True
  | e :: t => if is_corrupt e then True
              else s_negs (fst (step w s e)) = s_negs s /\ integ w (fst (step w s e)) t
  end.

Definition xs_of (w : world) (s : state) (es : list op) : list (op * (state * state * out)) :=
  combine es (run_states w s es).
Lemma xs_of_cons w s e t :
  xs_of w s (e :: t) = (e, (s, fst (step w s e), snd (step w s e))) :: xs_of w (fst (step w s e)) t.
Proof. unfold xs_of. cbn [run_states]. destruct (step w s e) as [s1 o]. reflexivity. Qed.

Section Inv.
Variable w : world.
Let c := w_cfg w.

Definition good (s : state) (oi : nat * nat) (P0 : nat) (T : N) : Prop :=
  placed w s (fst oi) (snd oi) T /\ (T < k_end (proj s))%N /\ surv c T P0 0 (proj s).

Definition MI1 (s : state) (g : g05) : Prop :=
  forall oi P0, In (oi, P0) (g_touched g) -> exists T, good s oi P0 T.
Definition MI2 (s : state) (g : g05) : Prop :=
  forall tid oi P0 o u l r f,
    assoc (g_gets g) tid = Some (oi, P0) ->
    thr_get (s_threads s) tid = Some (TGet o u l r f) ->
    match r with
    | None => exists T, good s oi P0 T
    | Some wr => (exists k, In k f /\ In k (lookup_keys w (fst oi) (snd oi))) /\
                 (wr_abs wr < k_end (proj s))%N /\ surv c (wr_abs wr) P0 0 (proj s)
    end.
Definition MI3 (seen : list nat) (g : g05) : Prop :=
  forall tid, assoc (g_gets g) tid <> None -> In tid seen.

Record Live (seen : list nat) (s : state) (g : g05) : Prop := {
  lv_negs : s_negs s = 0;
  lv_kinv : kinv c (proj s);
  lv_1 : MI1 s g; lv_2 : MI2 s g; lv_3 : MI3 seen g }.

Definition Inv (seen : list nat) (s : state) (g : g05) : Prop :=
  g_viol g = [] /\ (g_corrupt g = true \/ Live seen s g).

Lemma good_frame s s1 oi P0 T :
  creach c (proj s) (proj s1) -> incl (s_index s) (s_index s1) -> good s oi P0 T -> good s1 oi P0 T.
Proof.
  intros R I (A & B & C). split; [eapply placed_incl; eauto|]. split; [|eapply creach_surv; eauto].
  apply creach_mono in R. unfold kmono in R. lia.
Qed.

Lemma live_frame seen seen' s s1 g e :
  Live seen s g -> SF c e s s1 -> s_negs s1 = 0 ->
  (forall tid, start_tid e = Some tid -> ~ In tid seen) -> incl seen seen' ->
  Live seen' s1 g.
Proof.
  intros [L0 LK L1 L2 L3] (R & I & TF) N1 FR IS. constructor.
  - exact N1.
  - eapply creach_kinv; eauto.
  - intros oi P0 H. destruct (L1 oi P0 H) as [T G]. exists T. eapply good_frame; eauto.
  - intros tid oi P0 o u l r f HA HT.
    destruct (TF tid o u l r f HT) as [HT0|HS].
    + specialize (L2 tid oi P0 o u l r f HA HT0). destruct r as [wr|].
      * destruct L2 as (A & B & C). split; [exact A|]. split; [|eapply creach_surv; eauto].
        apply creach_mono in R. unfold kmono in R. lia.
      * destruct L2 as [T G]. exists T. eapply good_frame; eauto.
    + exfalso. apply (FR tid HS). apply L3. rewrite HA. discriminate.
  - intros tid H. apply IS, L3, H.
Qed.

Lemma same_key_lookup a b : same_key w a b = true ->
  lookup_keys w (fst a) (snd a) = lookup_keys w (fst b) (snd b).
Proof.
  unfold same_key, lookup_keys, flat_key. destruct a as [o i], b as [o' i']; cbn [fst snd].
  intros H. apply andb_true_iff in H. destruct H as [H1 H2]. apply Nat.eqb_eq in H1; subst o'.
  destruct (c_hier (w_cfg w)); cbn [orb] in H2.
  - apply Nat.eqb_eq in H2; subst; reflexivity.
  - destruct (c_inst_keys (w_cfg w)); [apply Nat.eqb_eq in H2; subst|]; reflexivity.
Qed.

Lemma not_lost g sm oi pb :
  s_negs sm = 0 -> MI1 sm g -> s_pushbacks sm <= pb ->
  least_specific sm (lookup_keys w (fst oi) (snd oi)) = None ->
  g_lost w g oi pb = false.
Proof.
  intros N0 M1 LE LS. unfold g_lost.
  destruct (existsb (fun '(k, pb0) => same_key w k oi && Nat.leb (pb - pb0) (c_old (w_cfg w))) (g_touched g)) eqn:E;
    [|apply andb_false_r].
  exfalso. apply existsb_exists in E. destruct E as [[k P0] [HI HK]].
  apply andb_true_iff in HK. destruct HK as [SK LB]. apply Nat.leb_le in LB.
  destruct (M1 k P0 HI) as (T & PL & KE & SV).
  unfold placed in PL. rewrite (same_key_lookup _ _ SK) in PL.
  assert (TB : (k_tbr (proj sm) <= T)%N).
  { eapply surv_valid; [exact SV|exact N0|]. cbn. unfold c. lia. }
  eapply placed_found; [exact PL|exact TB|exact KE|exact LS].
Qed.

Lemma step_getopen s tid o i s1 mo :
  step w s (OGetOpen tid o i) = (s1, mo) ->
  (mo = Bad /\ s1 = s) \/
  (exists e, get_open w s o i = (Err e, s1) /\ mo = Done e []) \/
  (exists t s0, get_open w s o i = (Ok t, s0) /\ s1 = thr_set s0 tid t /\ mo = Parked).
Proof.
  unfold step. cbn [may_take_refresh_lock is_corrupt andb].
  destruct (thr_get (s_threads s) tid).
  - intros H; inversion H; auto.
  - destruct (get_open w s o i) as [[t|e] s0]; intros H; inversion H; subst.
    + right; right. exists t, s0. auto.
    + right; left. exists e. auto.
Qed.

Lemma step_getopen_parked s tid o i s1 :
  kinv c (proj s) -> step w s (OGetOpen tid o i) = (s1, Parked) ->
  exists t s0, s1 = thr_set s0 tid t /\ ext w s s0 /\ get_post w s0 o i t.
Proof.
  intros K ES. destruct (step_getopen s tid o i s1 Parked ES) as [[X _]|[(e & _ & X)|(t & s0 & GO & -> & _)]];
    try discriminate.
  apply get_open_spec in GO; [|exact K]. destruct GO as (F & HP).
  exists t, s0. split; [reflexivity|]. split; [exact F|exact HP].
Qed.

Lemma step_getconsume s tid s1 mo :
  step w s (OGetConsume tid) = (s1, mo) ->
  (mo = Bad /\ s1 = s) \/
  (exists o u l r f code bytes s0, thr_get (s_threads s) tid = Some (TGet o u l r f) /\
      get_consume w s o u l r f = (code, bytes, s0) /\ s1 = thr_rm s0 tid /\ mo = Done code bytes).
Proof.
  unfold step. cbn [may_take_refresh_lock is_corrupt andb].
  destruct (thr_get (s_threads s) tid) as [[? ? ? ?|? ? ?|o u l r f|? ? ? ? ? ?|?]|];
    try (intros H; inversion H; auto; fail).
  destruct (get_consume w s o u l r f) as [[code bytes] s0] eqn:E.
  intros H; inversion H; subst. right. exists o, u, l, r, f, code, bytes, s0. auto.
Qed.

Lemma step_fm s ds s1 mo :
  step w s (OFindMissing ds) = (s1, mo) ->
  (mo = Bad /\ s1 = s) \/
  (exists e, find_missing w s ds = (Err e, s1) /\ mo = Missing e []) \/
  (exists m, find_missing w s ds = (Ok m, s1) /\ mo = Missing cOK (sort_nat m)).
Proof.
  unfold step. cbn [may_take_refresh_lock is_corrupt andb].
  destruct (refresh_lock_held s); [intros H; inversion H; auto|].
  destruct (find_missing w s ds) as [[m|e] s0]; intros H; inversion H; subst.
  - right; right. exists m. auto.
  - right; left. exists e. auto.
Qed.

Lemma step_fm_ok s ds s1 mm :
  kinv c (proj s) -> step w s (OFindMissing ds) = (s1, Missing cOK mm) ->
  exists m, find_missing w s ds = (Ok m, s1) /\ mm = sort_nat m.
Proof.
  intros K ES. destruct (step_fm s ds s1 _ ES) as [[X _]|[(e & FE & X)|(m & FM & X)]]; [discriminate| |].
  - inversion X; subst. apply find_missing_err in FE; [|exact K]. contradiction.
  - inversion X. exists m. auto.
Qed.

Lemma assoc_unassoc {T} (l : list (nat * T)) tid tid' x :
  assoc (unassoc l tid) tid' = Some x -> assoc l tid' = Some x.
Proof.
  unfold unassoc. induction l as [|[t v] r IH]; cbn; [auto|].
  destruct (Nat.eqb t tid) eqn:E1; cbn.
  - intros H. specialize (IH H). destruct (Nat.eqb tid' t) eqn:E2; [|exact IH].
    apply Nat.eqb_eq in E1, E2. subst. 
    exfalso. clear IH. revert H. induction r as [|[t' v'] r' IH']; cbn; [discriminate|].
    destruct (Nat.eqb t' tid) eqn:E3; cbn; [exact IH'|].
    destruct (Nat.eqb tid t') eqn:E4; [|exact IH']. apply Nat.eqb_eq in E4. subst. rewrite Nat.eqb_refl in E3. discriminate.
  - destruct (Nat.eqb tid' t); [auto|exact IH].
Qed.

Lemma touch_all_spec missing stamp : forall numbered g,
  g_gets (g_touch_all missing stamp numbered g) = g_gets g /\
  g_corrupt (g_touch_all missing stamp numbered g) = g_corrupt g /\
  g_viol (g_touch_all missing stamp numbered g) = g_viol g /\
  (forall x, In x (g_touched (g_touch_all missing stamp numbered g)) ->
     In x (g_touched g) \/
     exists pos oi, x = (oi, stamp) /\ In (pos, oi) numbered /\ existsb (Nat.eqb pos) missing = false).
Proof.
  unfold g_touch_all. induction numbered as [|[pos oi] t IH]; intros g; cbn [fold_left].
  - repeat split; auto.
  - destruct (existsb (Nat.eqb pos) missing) eqn:E.
    + destruct (IH g) as (A & B & C & D). repeat split; auto.
      intros x Hx. destruct (D x Hx) as [X|(p & o & X1 & X2 & X3)]; [auto|].
      right. exists p, o. split; [auto|]. split; [right; auto|auto].
    + destruct (IH (g_touch g oi stamp)) as (A & B & C & D). repeat split; auto.
      intros x Hx. destruct (D x Hx) as [[X|X]|(p & o & X1 & X2 & X3)].
      * right. exists pos, oi. split; [auto|]. split; [left; reflexivity|auto].
      * auto.
      * right. exists p, o. split; [auto|]. split; [right; auto|auto].
Qed.

Lemma dead_step late g x :
  g_corrupt g = true -> g_viol g = [] ->
  g_corrupt (g05_step late w g x) = true /\ g_viol (g05_step late w g x) = [].
Proof.
  intros C V. destruct x as [e [[s0 s1] mo]]. unfold g05_step.
  assert (L : forall oi pb, g_lost w g oi pb = false) by (intros; unfold g_lost; rewrite C; reflexivity).
  destruct e; auto.
  - destruct mo; cbn; rewrite ?L, ?andb_false_r; auto.
  - destruct (assoc (g_gets g) tid) as [[oi p0]|]; [|auto]. destruct (out_ok mo); cbn; auto.
  - destruct mo; auto. destruct (Z.eqb code 0); [|auto].
    cbv zeta.
    replace (existsb (fun '(pos, oi) => existsb (Nat.eqb pos) ds0 && g_lost w g oi (s_pushbacks s1)) (enumerate 0 ds)) with false.
    + match goal with |- context [g_touch_all ?a ?b ?d g] => destruct (touch_all_spec a b d g) as (_ & B & D & _) end.
      rewrite B, D. auto.
    + symmetry. apply not_true_is_false. intros E. apply existsb_exists in E. destruct E as [[pos oi] [_ E]].
      rewrite L, andb_false_r in E. discriminate.
Qed.
End Inv.
