(** C05: preservation of the invariant, and the theorems. *)
From Coq Require Import List NArith ZArith Bool Arith Lia Relations.
From Coq Require Import ZifyN ZifyNat ZifyBool.
From BBS Require Import Common.Sx Store.Model Store.WfTids Run.RStore Run.R01 Run.R05.
From BBS Require Import Store.P05Cnt Store.P05Frame Store.P05Ops Store.P05Step Store.P05Surv Store.P05Mon Store.P05Inv.
Import ListNotations.
Open Scope nat_scope.

Lemma proj_thr_set s tid t : proj (thr_set s tid t) = proj s. Proof. reflexivity. Qed.
Lemma index_thr_set s tid t : s_index (thr_set s tid t) = s_index s. Proof. reflexivity. Qed.
Lemma proj_thr_rm s tid : proj (thr_rm s tid) = proj s. Proof. reflexivity. Qed.
Lemma index_thr_rm s tid : s_index (thr_rm s tid) = s_index s. Proof. reflexivity. Qed.

Lemma good_start w s oi T :
  s_negs s = 0 -> placed w s (fst oi) (snd oi) T -> kfresh (proj s) T -> good w s oi (s_pushbacks s) T.
Proof.
  intros N0 PL (F1 & F2 & F3). split; [exact PL|]. split; [exact F3|].
  pose proof (surv_start (w_cfg w) T (proj s) F1 F2) as SV. cbn [k_pb k_negs proj] in SV.
  rewrite N0 in SV. exact SV.
Qed.

Lemma live_getopen w seen s g tid o i s1 mo :
  Live w seen s g -> Live w (tid :: seen) s1 g -> g_viol g = [] ->
  step w s (OGetOpen tid o i) = (s1, mo) -> s_negs s1 = 0 ->
  Inv w (tid :: seen) s1 (g05_step false w g (OGetOpen tid o i, (s, s1, mo))).
Proof.
  intros L LF V ES N1.
  pose proof (step_frame w s _ s1 mo (lv_kinv _ _ _ _ L) ES) as SFR.
  destruct (step_getopen w s tid o i s1 mo ES) as [[-> ->]|[(e & GE & ->)|(t & s0 & GO & -> & ->)]].
  - cbn. split; [exact V|right; exact LF].
  - apply get_open_spec in GE; [|apply (lv_kinv _ _ _ _ L)]. destruct GE as (F & HE).
    unfold g05_step. cbn [out_code].
    destruct (Z.eqb e cNotFound) eqn:EN; cbn [andb]; [|split; [exact V|right; exact LF]].
    apply Z.eqb_eq in EN.
    rewrite (not_lost w g s (o, i) (s_pushbacks s1)).
    + split; [exact V|right; exact LF].
    + apply (lv_negs _ _ _ _ L).
    + apply (lv_1 _ _ _ _ L).
    + destruct SFR as (R & _). apply creach_mono in R. unfold kmono in R. cbn in R. lia.
    + apply (HE EN).
  - apply get_open_spec in GO; [|apply (lv_kinv _ _ _ _ L)]. destruct GO as (F & HP).
    destruct HP as (uid & l0 & refresh & fkeys & -> & _ & HP).
    unfold g05_step.
    split; [exact V|right].
    destruct LF as [L0 LK L1 L2 L3]. constructor; auto.
    + intros tid' oi P0 o' u l r f HA HT. cbn [g_gets g_setgets assoc] in HA.
      destruct (Nat.eqb tid' tid) eqn:ET.
      * apply Nat.eqb_eq in ET; subst tid'. inversion HA; subst oi P0; clear HA.
        rewrite thr_get_set, Nat.eqb_refl in HT. inversion HT; subst; clear HT.
        set (s1 := thr_set s0 tid (TGet o' u l r f)) in *.
        assert (N0 : s_negs s0 = 0) by exact N1.
        destruct r as [wr|].
        -- destruct HP as (HK & B1 & B2). split; [exact HK|]. split; [exact B2|].
           assert (TB : (k_tbr (proj s0) <= wr_abs wr)%N).
           { pose proof (ki_noneg _ _ LK) as X. cbn in X. specialize (X N1). cbn. cbn in B1. lia. }
           pose proof (surv_start (w_cfg w) (wr_abs wr) (proj s0) TB B1) as SV.
           cbn [k_pb k_negs proj] in SV. rewrite N0 in SV. exact SV.
        -- destruct HP as (T & PL & KF). exists T.
           exact (good_start w s0 (o', i) T N0 PL KF).
      * apply (L2 tid' oi P0 o' u l r f); [exact HA|exact HT].
    + intros tid' H. cbn [g_gets g_setgets assoc] in H.
      destruct (Nat.eqb tid' tid) eqn:ET; [apply Nat.eqb_eq in ET; subst; left; reflexivity|].
      apply L3. exact H.
Qed.

Lemma live_weaken_gets w seen s g gets' :
  Live w seen s g ->
  (forall tid x, assoc gets' tid = Some x -> assoc (g_gets g) tid = Some x) ->
  Live w seen s (g_setgets g gets').
Proof.
  intros [L0 LK L1 L2 L3] H. constructor; auto.
  - intros tid oi P0 o u l r f HA HT. cbn [g_gets g_setgets] in HA. eapply L2; eauto.
  - intros tid HA. cbn [g_gets g_setgets] in HA. apply L3.
    destruct (assoc gets' tid) as [x|] eqn:E; [|congruence]. rewrite (H tid x E). discriminate.
Qed.

Lemma live_touch w seen s g oi P0 T :
  Live w seen s g -> good w s oi P0 T -> Live w seen s (g_touch g oi P0).
Proof.
  intros [L0 LK L1 L2 L3] G. constructor; auto.
  intros oi' P0' [E|H]; [inversion E; subst; exists T; exact G|apply L1; exact H].
Qed.

Lemma live_getconsume w seen s g tid s1 mo :
  Live w seen s g -> Live w seen s1 g -> g_viol g = [] ->
  step w s (OGetConsume tid) = (s1, mo) ->
  Inv w seen s1 (g05_step false w g (OGetConsume tid, (s, s1, mo))).
Proof.
  intros L LF V ES.
  pose proof (step_frame w s _ s1 mo (lv_kinv _ _ _ _ L) ES) as SFR.
  unfold g05_step.
  destruct (assoc (g_gets g) tid) as [[oi P0]|] eqn:EA; [|split; [exact V|right; exact LF]].
  assert (LW : Live w seen s1 (g_setgets g (unassoc (g_gets g) tid))).
  { apply live_weaken_gets; [exact LF|]. intros tid' x. apply assoc_unassoc. }
  destruct (out_ok mo) eqn:OK; [|split; [exact V|right; exact LW]].
  split; [exact V|right].
  destruct (step_getconsume w s tid s1 mo ES) as [[-> ->]|(o & u & l & r & f & code & bytes & s0 & HT & GC & -> & ->)];
    [discriminate|].
  cbn [out_ok] in OK. apply Z.eqb_eq in OK. subst code.
  apply get_consume_spec in GC. destruct GC as (F & HR).
  pose proof (lv_2 _ _ _ _ L tid oi P0 o u l r f EA HT) as M2.
  destruct SFR as (R & I & _).
  destruct r as [wr|].
  - destruct M2 as ((k & K1 & K2) & B & SV).
    destruct (HR eq_refl wr eq_refl) as (nl & A1 & A2 & A3).
    apply (live_touch w seen _ _ oi P0 (wr_abs wr)); [exact LW|].
    split; [exists k, nl; split; [exact K2|split; [apply A3; exact K1|exact A1]]|].
    split; [|eapply creach_surv; eauto].
    apply creach_mono in R. unfold kmono in R. lia.
  - destruct M2 as (T & G).
    apply (live_touch w seen _ _ oi P0 T); [exact LW|]. eapply good_frame; eauto.
Qed.

Lemma live_touch_all w seen s g missing stamp numbered :
  Live w seen s g ->
  (forall pos oi, In (pos, oi) numbered -> existsb (Nat.eqb pos) missing = false -> exists T, good w s oi stamp T) ->
  Live w seen s (g_touch_all missing stamp numbered g).
Proof.
  intros [L0 LK L1 L2 L3] H.
  destruct (touch_all_spec missing stamp numbered g) as (A & B & C & D).
  constructor; auto.
  - intros oi P0 Hx. destruct (D _ Hx) as [X|(pos & oi' & X1 & X2 & X3)]; [apply L1; exact X|].
    inversion X1; subst. eapply H; eauto.
  - intros tid oi P0 o u l r f HA HT. rewrite A in HA. eapply L2; eauto.
  - intros tid HA. rewrite A in HA. apply L3; exact HA.
Qed.

Lemma live_fm w seen s g ds s1 mo :
  Live w seen s g -> Live w seen s1 g -> g_viol g = [] ->
  step w s (OFindMissing ds) = (s1, mo) -> s_negs s1 = 0 ->
  Inv w seen s1 (g05_step false w g (OFindMissing ds, (s, s1, mo))).
Proof.
  intros L LF V ES N1.
  pose proof (lv_kinv _ _ _ _ L) as K.
  unfold g05_step.
  destruct (step_fm w s ds s1 mo ES) as [[-> ->]|[(e & FE & ->)|(m & FM & ->)]].
  - split; [exact V|right; exact LF].
  - apply find_missing_err in FE; [|exact K].
    destruct (Z.eqb e 0) eqn:E0; [apply Z.eqb_eq in E0; contradiction|]. split; [exact V|right; exact LF].
  - change (Z.eqb cOK 0) with true. cbv iota zeta. cbn [orb].
    pose proof FM as FM0. apply find_missing_spec in FM; [|exact K]. destruct FM as (HM & HP).
    (* facts about intermediate states *)
    assert (MID : forall sm, frx (w_cfg w) s sm -> frx (w_cfg w) sm s1 ->
                   s_negs sm = 0 /\ MI1 w sm g /\ s_pushbacks s <= s_pushbacks sm <= s_pushbacks s1).
    { intros sm (R1 & I1 & _) (R2 & I2 & _).
      pose proof (creach_mono _ _ _ R1) as M1. pose proof (creach_mono _ _ _ R2) as M2.
      unfold kmono in M1, M2. cbn in M1, M2.
      split; [lia|]. split; [|lia].
      intros oi P0 Hx. destruct (lv_1 _ _ _ _ L oi P0 Hx) as [T G]. exists T. eapply good_frame; eauto. }
    assert (NL : existsb (fun '(pos, oi) => existsb (Nat.eqb pos) (sort_nat m) && g_lost w g oi (s_pushbacks s1)) (enumerate 0 ds) = false).
    { apply not_true_is_false. intros E. apply existsb_exists in E. destruct E as [[pos oi] [HI E]].
      apply andb_true_iff in E. destruct E as [E1 E2].
      rewrite existsb_eqb_in, sort_nat_in in E1.
      destruct (HM pos E1) as (o & i & sm & X1 & X2 & X3 & X4).
      assert (oi = (o, i)) by (eapply enumerate_fun; eauto). subst oi.
      destruct (MID sm X2 X3) as (Y1 & Y2 & Y3).
      rewrite (not_lost w g sm (o, i) (s_pushbacks s1)) in E2; [discriminate|exact Y1|exact Y2|lia|exact X4]. }
    rewrite NL. split.
    + destruct (touch_all_spec (sort_nat m) (if Nat.leb (length ds) 1 then s_pushbacks s1 else s_pushbacks s) (enumerate 0 ds) g) as (_ & _ & C & _).
      rewrite C. exact V.
    + right. apply live_touch_all; [exact LF|].
      intros pos [o i] HI HN.
      assert (NM : ~ In pos m).
      { intros X. apply (proj2 (sort_nat_in _ _)) in X. apply (proj2 (existsb_eqb_in _ _)) in X. congruence. }
      destruct (Nat.leb (length ds) 1) eqn:EL.
      * (* a single digest is stamped with the count at the return *)
        destruct ds as [|d [|d' ds']]; [destruct HI| |discriminate EL].
        destruct HI as [E|[]]. inversion E; subst.
        destruct (find_missing_single w s o i m s1 K FM0 NM) as (T & PL & KF).
        exists T. exact (good_start w s1 (o, i) T N1 PL KF).
      * destruct (HP pos o i HI NM) as (sm & X2 & X3 & (T & PL & KF)).
        destruct (MID sm X2 X3) as (Y1 & Y2 & Y3).
        exists T.
        pose proof (good_start w sm (o, i) T Y1 PL KF) as G.
        destruct X3 as (R3 & I3 & _).
        destruct (good_frame w sm s1 (o, i) _ T R3 I3 G) as (A & B & C).
        split; [exact A|]. split; [exact B|]. eapply surv_weaken; [|exact C]. lia.
Qed.

Lemma inv_step w seen s g e :
  Inv w seen s g ->
  (forall tid, start_tid e = Some tid -> ~ In tid seen) ->
  (is_corrupt e = false -> s_negs (fst (step w s e)) = s_negs s) ->
  Inv w (match start_tid e with Some t => t :: seen | None => seen end) (fst (step w s e))
      (g05_step false w g (e, (s, fst (step w s e), snd (step w s e)))).
Proof.
  intros [V [C|L]] FR NG.
  { destruct (dead_step w false g (e, (s, fst (step w s e), snd (step w s e))) C V) as [A B].
    split; [exact B|left; exact A]. }
  destruct (step w s e) as [s1 mo] eqn:ES. cbn [fst snd] in *.
  pose proof (lv_negs _ _ _ _ L) as N0.
  assert (GEN : is_corrupt e = false ->
                Live w (match start_tid e with Some t => t :: seen | None => seen end) s1 g).
  { intros IC. eapply live_frame; [exact L|eapply step_frame; [apply (lv_kinv _ _ _ _ L)|exact ES]| | |].
    - rewrite (NG IC). exact N0.
    - exact FR.
    - destruct (start_tid e); [apply incl_tl|]; apply incl_refl. }
  destruct e as [tid o i|tid data|tid err|tid o i|tid|ds|tid p i ch|tid slices|r off len];
    try (split; [exact V|right; exact (GEN eq_refl)]).
  - apply live_getopen; [exact L|exact (GEN eq_refl)|exact V|exact ES|rewrite (NG eq_refl); exact N0].
  - apply live_getconsume; [exact L|exact (GEN eq_refl)|exact V|exact ES].
  - apply live_fm; [exact L|exact (GEN eq_refl)|exact V|exact ES|rewrite (NG eq_refl); exact N0].
  - split; [exact V|left; reflexivity].
Qed.

Lemma inv_run w : forall es seen s g,
  Inv w seen s g -> wf_tids_from seen es = true -> integ w s es ->
  g_viol (fold_left (g05_step false w) (xs_of w s es) g) = [].
Proof.
  induction es as [|e t IH]; intros seen s g I WT IG.
  - destruct I as [V _]. exact V.
  - rewrite xs_of_cons. cbn [fold_left].
    apply wf_tids_from_cons in WT. destruct WT as [FR WT]. cbn [integ] in IG.
    assert (NG : is_corrupt e = false -> s_negs (fst (step w s e)) = s_negs s).
    { intros E. rewrite E in IG. apply IG. }
    pose proof (inv_step w seen s g e I FR NG) as I1.
    destruct (is_corrupt e) eqn:IC.
    + (* after an injected corruption the bookkeeping stays switched off *)
      assert (D : g_corrupt (g05_step false w g (e, (s, fst (step w s e), snd (step w s e)))) = true).
      { destruct e; try discriminate. reflexivity. }
      destruct I1 as [V1 _].
      clear - D V1. revert D V1.
      generalize (g05_step false w g (e, (s, fst (step w s e), snd (step w s e)))).
      generalize (xs_of w (fst (step w s e)) t).
      induction l as [|x l IHl]; intros g0 D V1; cbn [fold_left]; [exact V1|].
      destruct (dead_step w false g0 x D V1) as [A B]. apply IHl; auto.
    + eapply IH; [exact I1|exact WT|apply IG].
Qed.

Lemma inv_init w : Inv w [] (init_state (w_cfg w)) g05_init.
Proof.
  split; [reflexivity|right]. constructor.
  - reflexivity.
  - apply kinv_init.
  - intros oi P0 [].
  - intros tid oi P0 o u l r f H; discriminate.
  - intros tid H; cbn in H; congruence.
Qed.

Definition mon05_early (w : world) (es : list op) : list Z :=
  dedupZ (g_viol (fold_left (g05_step false w) (run_x w es) g05_init)).

Theorem early_monitor_silent w es :
  wf_tids es = true -> integ w (init_state (w_cfg w)) es -> mon05_early w es = [].
Proof.
  intros WT IG. unfold mon05_early.
  change (run_x w es) with (xs_of w (init_state (w_cfg w)) es).
  rewrite (inv_run w es [] _ _ (inv_init w) WT IG). reflexivity.
Qed.

Lemma dedupZ_in z l : In z (dedupZ l) -> In z l.
Proof.
  induction l as [|x t IH]; cbn; [auto|].
  destruct (existsb (Z.eqb x) t); [intros H; right; auto|].
  intros [H|H]; [left; exact H|right; auto].
Qed.
Lemma dedupZ_nil l : dedupZ l = [] -> l = [].
Proof.
  induction l as [|x t IH]; cbn; [auto|].
  destruct (existsb (Z.eqb x) t) eqn:E; [|discriminate].
  intros H. specialize (IH H). subst t. discriminate.
Qed.

(** clause 1 of the R05 monitor on the model = the early-stamping bookkeeping *)
Lemma RX_clauses (X : Z -> Prop) (f : m05 -> op * (state * state * out) -> m05) w es z :
  (forall m g x, RX X m g -> RX X (f m x) (g05_step false w g x)) ->
  In z (dedupZ (t_viol (fold_left f (run_x w es) m05_init))) ->
  (z = 1%Z /\ mon05_early w es <> []) \/ X z \/ z = 5%Z \/ z = 6%Z.
Proof.
  intros HS H. apply dedupZ_in in H.
  destruct (fold_R X f (g05_step false w) HS (run_x w es) _ _ (RX_init X)) as (_ & _ & _ & D).
  destruct (D z H) as [[-> H1]|H1]; [|right; exact H1].
  left. split; [reflexivity|]. unfold mon05_early. intros E. apply dedupZ_nil in E. rewrite E in H1. destruct H1.
Qed.

(** on the model's own observations, for ALL schedules: whatever the monitor
    reports is clause 5, clause 6, or a clause 1 that the early-stamping
    bookkeeping reports too; clauses 2, 3, 4 are never reported *)
Theorem mon05_model_clauses w es z :
  In z (mon05_model w es) -> (z = 1%Z /\ mon05_early w es <> []) \/ z = 5%Z \/ z = 6%Z.
Proof.
  intros H. destruct (RX_clauses (fun _ => False) (m05m_step w) w es z (fun m g x HR => R_step w m g x HR) H) as [A|[[]|B]]; auto.
Qed.

Theorem model_satisfies_C05 w es :
  wf_tids es = true -> integ w (init_state (w_cfg w)) es ->
  forall z, In z (mon05_model w es) -> z = 5%Z \/ z = 6%Z.
Proof.
  intros WT IG z H. destruct (mon05_model_clauses w es z H) as [[_ N]|H1]; [|exact H1].
  exfalso. apply N. apply early_monitor_silent; assumption.
Qed.
