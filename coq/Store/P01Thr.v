(** C01 proofs: thread list / claim list bookkeeping, small facts about the
    model that need no invariant. *)
From Coq Require Import List NArith ZArith Bool Arith Lia Permutation.
From BBS Require Import Store.Model Store.Wf Store.P01Inv.
From BBS Require Export Store.Basics.
Import ListNotations.
Open Scope N_scope.

Lemma thr_del_fst_notin ts tid : ~ In tid (map fst (thr_del ts tid)).
Proof.
  intros H. apply in_map_iff in H. destruct H as [[i t] [E H]]. cbn in E. subst i.
  apply thr_del_in in H. tauto.
Qed.

Lemma claims_get_perm c ts tid t :
  NoDup (map fst ts) -> thr_get ts tid = Some t ->
  Permutation (claims_of_threads c ts) (claims_of_thread c t ++ claims_of_threads c (thr_del ts tid)).
Proof. apply (thr_flat_map_split (claims_of_thread c)). Qed.

Definition frame_tn (s s' : state) : Prop := s_threads s' = s_threads s /\ s_negs s' = s_negs s.
Lemma frame_tn_refl s : frame_tn s s. Proof. split; reflexivity. Qed.
Lemma frame_tn_trans a b c : frame_tn a b -> frame_tn b c -> frame_tn a c.
Proof. unfold frame_tn. intros [A B] [C D]. split; congruence. Qed.

Lemma frame_tin_tn s s' : frame_tin s s' -> frame_tn s s'.
Proof. intros [A [B C]]. split; assumption. Qed.
Lemma pin_frame s u : frame_tn s (pin s u). Proof. apply frame_tin_tn, frame_pin. Qed.
Lemma unpin_frame c s u : frame_tn s (unpin c s u). Proof. apply frame_tin_tn, frame_unpin. Qed.
Lemma write_frame s u off data : frame_tn s (write_block s u off data).
Proof. apply frame_tin_tn, frame_write_block. Qed.
Lemma index_put_frame s k l : frame_tn s (index_put s k l).
Proof. split; reflexivity. Qed.
Lemma index_put_all_frame ks : forall s l, frame_tn s (index_put_all s ks l).
Proof.
  induction ks as [|k t IH]; intros s l; cbn [index_put_all]; [apply frame_tn_refl|].
  eapply frame_tn_trans; [apply index_put_frame|apply IH].
Qed.
Lemma index_put_all_valid ks : forall s l l', loc_valid (index_put_all s ks l) l' = loc_valid s l'.
Proof.
  induction ks as [|k t IH]; intros s l l'; cbn [index_put_all]; [reflexivity|].
  rewrite IH. reflexivity.
Qed.
Lemma index_put_all_in ks : forall s l e, In e (s_index s) -> In e (s_index (index_put_all s ks l)).
Proof.
  induction ks as [|k t IH]; intros s l e H; cbn [index_put_all]; [exact H|].
  apply IH. cbn. right. exact H.
Qed.
Lemma index_put_all_tbr ks : forall s l, s_tbr (index_put_all s ks l) = s_tbr s.
Proof. induction ks as [|k t IH]; intros s l; cbn [index_put_all]; [reflexivity|]. rewrite IH. reflexivity. Qed.

Lemma finalize_eq c s wr ok :
  finalize c s wr ok =
  (if negb ok then Err cInvalidArgument
   else if wr_abs wr <? s_tbr (unpin c s (wr_uid wr)) then Err cInternal
   else Ok {| l_abs := wr_abs wr; l_off := wr_off wr; l_size := wr_size wr |},
   unpin c s (wr_uid wr)).
Proof.
  unfold finalize. destruct (negb ok); [reflexivity|].
  destruct (wr_abs wr <? s_tbr (unpin c s (wr_uid wr))); reflexivity.
Qed.

Lemma flat_key_fst c o i : fst (flat_key c o i) = o.
Proof. unfold flat_key. destruct (c_inst_keys c); reflexivity. Qed.
Lemma lookup_keys_fst w o i k : In k (lookup_keys w o i) -> fst k = o.
Proof.
  unfold lookup_keys. destruct (c_hier (w_cfg w)).
  - intros H. apply in_map_iff in H. destruct H as [a [<- _]]. reflexivity.
  - intros [<-|[]]. apply flat_key_fst.
Qed.
Lemma finalize_keys_fst w o i k : In k (finalize_keys w o i) -> fst k = o.
Proof.
  unfold finalize_keys. destruct (c_hier (w_cfg w)).
  - intros [<-|[<-|[]]]; reflexivity.
  - intros [<-|[]]. apply flat_key_fst.
Qed.
