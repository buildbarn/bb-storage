(** C05: the C05 monitor on the model's own observations.

    [mon05_model] is what [mon05 inp (run_store inp)] reduces to.  [g05_step]
    is the retention bookkeeping stated on model outputs, parametrised by the
    moment at which a touch is stamped with the push-back count:
    - late = false (clause 1 of R05): when the object was actually placed
      (Get: when the reader was obtained; multi-digest FindMissing: when the
      call started; single-digest FindMissing: at return);
    - late = true (clauses 5/6 of R05): Get: when the reader is consumed;
      FindMissing: when the call returns. *)
From Coq Require Import Lia.
From BBS Require Common.SxFactsMA.
From BBS Require Import Common.Sx Store.Model Run.RStore Run.R01 Run.R05.
Import ListNotations.
Open Scope Z_scope.

Definition m05m_step (w : world) (m : m05) (x : op * (state * state * out)) : m05 :=
  let '(e, (s0, s1, mo)) := x in m05_step w m (e, (s0, s1, mo), enc_obs (w_cfg w) e s0 s1 mo).

Definition run_x (w : world) (es : list op) : list (op * (state * state * out)) :=
  combine es (run_states w (init_state (w_cfg w)) es).

Definition mon05_model (w : world) (es : list op) : list Z :=
  dedupZ (t_viol (fold_left (m05m_step w) (run_x w es) m05_init)).

Lemma fold_left_combine_map {A B C} (g : A -> B * C -> A) (f : B -> C) : forall l a,
  fold_left g (combine l (map f l)) a = fold_left (fun a x => g a (x, f x)) l a.
Proof. induction l as [|x t IH]; intros a; cbn; auto. Qed.
Lemma fold_left_ext {A B} (g1 g2 : A -> B -> A) : (forall a x, g1 a x = g2 a x) ->
  forall l a, fold_left g1 l a = fold_left g2 l a.
Proof. intros H; induction l as [|x t IH]; intros a; cbn; [auto|]. rewrite H. apply IH. Qed.

Theorem mon05_on_model inp : mon05 inp (run_store inp) = mon05_model (dec_world inp) (dec_ops inp).
Proof.
  unfold mon05, run_store, mon05_model, run_x. cbn [sx_list]. f_equal. f_equal.
  rewrite fold_left_combine_map. apply fold_left_ext.
  intros a [e [[s0 s1] mo]]. reflexivity.
Qed.

Record g05 := {
  g_gets : list (nat * ((nat * nat) * nat));   (* tid -> (obj, inst), push-backs after the open *)
  g_touched : list ((nat * nat) * nat);
  g_corrupt : bool;
  g_viol : list Z }.

Definition g05_init : g05 := {| g_gets := []; g_touched := []; g_corrupt := false; g_viol := [] |}.

Definition g_lost (w : world) (g : g05) (oi : nat * nat) (pb : nat) : bool :=
  negb (g_corrupt g) &&
  existsb (fun '(k, pb0) => same_key w k oi && Nat.leb (pb - pb0) (c_old (w_cfg w))) (g_touched g).
Definition g_touch (g : g05) (oi : nat * nat) (pb : nat) : g05 :=
  {| g_gets := g_gets g; g_touched := (oi, pb) :: g_touched g; g_corrupt := g_corrupt g; g_viol := g_viol g |}.
Definition g_addviol (g : g05) (v : list Z) : g05 :=
  {| g_gets := g_gets g; g_touched := g_touched g; g_corrupt := g_corrupt g; g_viol := g_viol g ++ v |}.
Definition g_setgets (g : g05) (l : list (nat * ((nat * nat) * nat))) : g05 :=
  {| g_gets := l; g_touched := g_touched g; g_corrupt := g_corrupt g; g_viol := g_viol g |}.

Definition out_ok (mo : out) : bool := match mo with Done code _ => Z.eqb code 0 | _ => false end.
Definition out_code (mo : out) : Z := match mo with Done c _ => c | Missing c _ => c | _ => 0 end.

Definition g_touch_all (missing : list nat) (stamp : nat) (numbered : list (nat * (nat * nat))) (g : g05) : g05 :=
  fold_left (fun acc '(pos, oi) => if existsb (Nat.eqb pos) missing then acc else g_touch acc oi stamp) numbered g.

Definition g05_step (late : bool) (w : world) (g : g05) (x : op * (state * state * out)) : g05 :=
  let '(e, (s0, s1, mo)) := x in
  let pb := s_pushbacks s1 in
  match e with
  | OGetOpen tid ob i =>
      match mo with
      | Parked => g_setgets g ((tid, ((ob, i), pb)) :: g_gets g)
      | _ => if Z.eqb (out_code mo) cNotFound && g_lost w g (ob, i) pb then g_addviol g [1] else g
      end
  | OGetConsume tid =>
      match assoc (g_gets g) tid with
      | Some (oi, p0) =>
          let g1 := g_setgets g (unassoc (g_gets g) tid) in
          if out_ok mo then g_touch g1 oi (if late then pb else p0) else g1
      | None => g
      end
  | OFindMissing ds =>
      match mo with
      | Missing code missing =>
          if Z.eqb code 0 then
            let numbered := enumerate 0 ds in
            let lost := existsb (fun '(pos, oi) => existsb (Nat.eqb pos) missing && g_lost w g oi pb) numbered in
            let g1 := if lost then g_addviol g [1] else g in
            let stamp := if late || Nat.leb (length ds) 1 then pb else s_pushbacks s0 in
            g_touch_all missing stamp numbered g1
          else g
      | _ => g
      end
  | OCorrupt _ _ _ =>
      {| g_gets := g_gets g; g_touched := g_touched g; g_corrupt := true; g_viol := g_viol g |}
  | _ => g
  end.

(** clause 1 of the R05 monitor on model observations IS the early-stamping
    bookkeeping; [X]: the write clauses that may be reported besides (none
    without write counts in the observations, all of [wcl] with them) *)
Definition wcl (z : Z) : Prop := z = 2 \/ z = 3 \/ z = 4 \/ z = 7.
Definition VX (X : Z -> Prop) (m : m05) (g : g05) : Prop :=
  forall z, In z (t_viol m) -> (z = 1 /\ In 1 (g_viol g)) \/ X z \/ z = 5 \/ z = 6.
Definition RX (X : Z -> Prop) (m : m05) (g : g05) : Prop :=
  t_gets m = g_gets g /\ t_touched m = g_touched g /\ t_corrupt m = g_corrupt g /\ VX X m g.

Definition out_kind (mo : out) : Z := match mo with Done _ _ => 0 | Parked => 1 | Missing _ _ => 2 | Bad => 3 end.
Definition renders (o : sx) (mo : out) : Prop :=
  ob_kind o = out_kind mo /\ ob_code o = out_code mo /\
  forall c mm, mo = Missing c mm -> sx_nats (sx_nth o 2) = mm.

Lemma renders_ok o mo : renders o mo -> ob_ok o = out_ok mo.
Proof. intros (K & C & _). unfold ob_ok. rewrite K, C. destruct mo; reflexivity. Qed.

Lemma renders_enc_obs c e s0 s1 mo : renders (enc_obs c e s0 s1 mo) mo.
Proof.
  split; [destruct mo; reflexivity|]. split; [destruct mo; reflexivity|].
  intros code mm ->. apply SxFactsMA.sx_nats_of_nats.
Qed.

Section RX.
Variable X : Z -> Prop.

Lemma lost_R w m g oi pb : RX X m g -> g_lost w g oi pb = negb (t_corrupt m) && recent w (t_touched m) oi pb.
Proof. intros (_ & B & C & _). unfold g_lost, recent. rewrite B, C. reflexivity. Qed.

Lemma loss_R w m g oi pb z : RX X m g -> In z (loss_clauses w m oi pb) ->
  (z = 1 /\ g_lost w g oi pb = true) \/ z = 5 \/ z = 6.
Proof.
  intros HR H. rewrite (lost_R w m g oi pb HR). unfold loss_clauses in H.
  destruct (t_corrupt m); [destruct H|].
  destruct (recent w (t_touched m) oi pb).
  - destruct H as [<-|[]]. left. split; reflexivity.
  - right. apply in_app_or in H. destruct H as [H|H].
    + destruct (recent w (t_late_get m) oi pb); [destruct H as [<-|[]]; left; reflexivity|destruct H].
    + destruct (recent w (t_late_fm m) oi pb); [destruct H as [<-|[]]; right; reflexivity|destruct H].
Qed.

Lemma R_frame m g m' g' :
  RX X m g -> t_gets m' = g_gets g' -> t_touched m' = g_touched g' -> t_corrupt m' = g_corrupt g' ->
  t_viol m' = t_viol m -> incl (g_viol g) (g_viol g') -> RX X m' g'.
Proof.
  intros (_ & _ & _ & HV) A B C D E. split; [exact A|]. split; [exact B|]. split; [exact C|].
  intros z Hz. rewrite D in Hz. destruct (HV z Hz) as [[-> H1]|H]; [left; split; [reflexivity|apply E, H1]|right; exact H].
Qed.

Lemma R_setprev m g p : RX X m g -> RX X (m_setprev m p) g.
Proof. intros HR. pose proof HR as (A & B & C & D). eapply R_frame; eauto. apply incl_refl. Qed.

Lemma R_viol_loss m g (ls : list Z) (lostb : bool) :
  RX X m g ->
  (forall z, In z ls -> (z = 1 /\ lostb = true) \/ z = 5 \/ z = 6) ->
  RX X (m_viol m ls) (if lostb then g_addviol g [1] else g).
Proof.
  intros (A & B & C & HV) HL.
  assert (I : incl (g_viol g) (g_viol (if lostb then g_addviol g [1] else g))).
  { destruct lostb; [cbn; apply incl_appl|]; apply incl_refl. }
  split; [destruct lostb; exact A|]. split; [destruct lostb; exact B|]. split; [destruct lostb; exact C|].
  intros z Hz. cbn [t_viol m_viol] in Hz. apply in_app_or in Hz. destruct Hz as [Hz|Hz].
  - destruct (HV z Hz) as [[-> H1]|H]; [left; split; [reflexivity|apply I, H1]|right; exact H].
  - destruct (HL z Hz) as [[-> H1]|H]; [|right; right; exact H]. subst lostb. left. split; [reflexivity|].
    cbn. apply in_or_app. right. left. reflexivity.
Qed.

Lemma R_viol_extra m g (ls : list Z) : RX X m g -> (forall z, In z ls -> X z) -> RX X (m_viol m ls) g.
Proof.
  intros (A & B & C & HV) HL. split; [exact A|]. split; [exact B|]. split; [exact C|].
  intros z Hz. cbn [t_viol m_viol] in Hz. apply in_app_or in Hz. destruct Hz as [Hz|Hz]; [exact (HV z Hz)|].
  right. left. exact (HL z Hz).
Qed.

Lemma fold_R {Y} (f : m05 -> Y -> m05) (h : g05 -> Y -> g05) :
  (forall a b x, RX X a b -> RX X (f a x) (h b x)) ->
  forall l a b, RX X a b -> RX X (fold_left f l a) (fold_left h l b).
Proof. intros H; induction l as [|x t IH]; intros a b HR; cbn; auto. Qed.

Lemma ltb_leb n : Nat.ltb 1 n = negb (Nat.leb n 1).
Proof. destruct n as [|[|n]]; reflexivity. Qed.

Lemma RX_step w m g e s0 s1 mo o :
  renders o mo -> (forall z, wcl z -> X z) \/ (mo <> Bad -> ob_writes o < 0) ->
  RX X m g -> RX X (m05_step w m (e, (s0, s1, mo), o)) (g05_step false w g (e, (s0, s1, mo))).
Proof.
  intros RO HW HR. pose proof HR as (RG & RT & RC & RV).
  pose proof (renders_ok o mo RO) as OK. destruct RO as (OK' & OC & OM).
  assert (GEN : RX X (if Z.eqb (ob_kind o) 3 then m else m_setprev m None) g).
  { destruct (Z.eqb _ 3); [exact HR|apply R_setprev; exact HR]. }
  unfold m05_step, g05_step.
  destruct e as [tid ob i|tid data|tid err|tid ob i|tid|ds|tid p i ch|tid slices|r off len]; try exact GEN.
  - (* OGetOpen *)
    rewrite OK', OC.
    destruct mo as [code bytes| |code dd|]; cbn [out_kind out_code]; cbn [Z.eqb Pos.eqb].
    + apply R_setprev. destruct (Z.eqb code cNotFound); cbn [andb]; [|exact HR].
      apply R_viol_loss; [exact HR|]. intros z Hz. exact (loss_R w m g _ _ z HR Hz).
    + apply R_setprev. eapply R_frame; [exact HR| | | | |apply incl_refl]; cbn; first [assumption|reflexivity|f_equal; assumption].
    + apply R_setprev. destruct (Z.eqb code cNotFound); cbn [andb]; [|exact HR].
      apply R_viol_loss; [exact HR|]. intros z Hz. exact (loss_R w m g _ _ z HR Hz).
    + change (Z.eqb 0 cNotFound) with false. cbv iota. cbn [andb]. apply R_setprev. exact HR.
  - (* OGetConsume *)
    rewrite RG, OK.
    destruct (assoc (g_gets g) tid) as [[oi p0]|]; [|apply R_setprev; exact HR].
    set (m1 := m_setgets m (unassoc (g_gets g) tid)).
    assert (R1 : RX X m1 (g_setgets g (unassoc (g_gets g) tid))).
    { eapply R_frame; [exact HR| | | | |apply incl_refl]; cbn; congruence. }
    match goal with |- RX X (if _ then m_setprev (m_late_get (m_touch ?M2 _ _) _ _) _ else _) _ => set (m2 := M2) end.
    assert (R2 : RX X m2 (g_setgets g (unassoc (g_gets g) tid))).
    { unfold m2. destruct (t_prev m) as [[[pe pb0] pw]|]; [|exact R1].
      destruct pe; try exact R1. destruct pb0; try exact R1.
      match goal with |- context [if ?C then _ else _] => destruct C eqn:CC end; [|exact R1].
      apply R_viol_extra; [exact R1|]. intros z [<-|[]].
      destruct HW as [HX|NW]; [apply HX; unfold wcl; destruct (pw <? 0); auto|exfalso].
      (* the clause is only reported on a non-negative write count *)
      apply andb_true_iff in CC. destruct CC as [CC _]. apply andb_true_iff in CC. destruct CC as [CC W0].
      apply andb_true_iff in CC. destruct CC as [_ CC]. apply Z.leb_le in W0.
      destruct mo; try discriminate. assert (ob_writes o < 0) by (apply NW; discriminate). lia. }
    clearbody m2. destruct (out_ok mo).
    + apply R_setprev. destruct R2 as (A & B & C & D). pose proof A as A'. pose proof B as B'. pose proof C as C'. cbn in A', B', C'.
      eapply R_frame; [exact (conj A (conj B (conj C D)))| | | | |apply incl_refl]; cbn; congruence.
    + apply R_setprev. exact R2.
  - (* OFindMissing *)
    rewrite OK', OC.
    destruct mo as [code bytes| |code mm|]; cbn [out_kind out_code]; cbn [Z.eqb Pos.eqb andb];
      try (apply R_setprev; exact HR).
    rewrite (OM code mm eq_refl).
    destruct (Z.eqb code 0); [|apply R_setprev; exact HR].
    cbv zeta. apply R_setprev. cbn [orb].
    unfold g_touch_all. apply fold_R.
    + intros a b [pos oi] Hab. destruct (existsb (Nat.eqb pos) mm); [exact Hab|].
      unfold m_touch_fm. rewrite ltb_leb.
      destruct Hab as (A & B & C & D).
      destruct (Nat.leb (length ds) 1); cbn [negb];
        (eapply R_frame; [exact (conj A (conj B (conj C D)))| | | | |apply incl_refl]; cbn; congruence).
    + set (lostb := existsb (fun '(pos, oi) => existsb (Nat.eqb pos) mm && g_lost w g oi (s_pushbacks s1)) (enumerate 0 ds)).
      set (ls := flat_map (fun '(pos, oi) => if existsb (Nat.eqb pos) mm then loss_clauses w m oi (s_pushbacks s1) else [])
                          (enumerate 0 ds)).
      assert (R1 : RX X (m_viol m ls) (if lostb then g_addviol g [1] else g)).
      { apply R_viol_loss; [exact HR|]. intros z Hz. unfold ls in Hz. apply in_flat_map in Hz.
        destruct Hz as [[pos oi] [HI Hz]]. destruct (existsb (Nat.eqb pos) mm) eqn:EM; [|destruct Hz].
        destruct (loss_R w m g oi _ z HR Hz) as [[-> HL]|H]; [|right; exact H].
        left. split; [reflexivity|]. unfold lostb. apply existsb_exists. exists (pos, oi). split; [exact HI|].
        rewrite EM, HL. reflexivity. }
      destruct (t_prev m) as [[[pe pb0] pw]|]; [|exact R1].
      destruct pe; try exact R1. destruct pb0; try exact R1.
      match goal with |- context [if ?C then _ else _] => destruct C eqn:CC end; [|exact R1].
      apply R_viol_extra; [exact R1|]. intros z [<-|[]].
      destruct HW as [HX|NW]; [apply HX; unfold wcl; destruct (Nat.leb (length ds - length mm) 1); auto|exfalso].
      apply andb_true_iff in CC. destruct CC as [_ CC]. apply Z.ltb_lt in CC.
      assert (ob_writes o < 0) by (apply NW; discriminate). lia.
  - (* OCorrupt *)
    eapply R_frame; [exact HR| | | | |apply incl_refl]; cbn; congruence.
Qed.

Lemma RX_init : RX X m05_init g05_init.
Proof. unfold RX, VX; cbn. repeat split; auto. intros ? []. Qed.
End RX.

Lemma R_step w m g x :
  RX (fun _ => False) m g -> RX (fun _ => False) (m05m_step w m x) (g05_step false w g x).
Proof.
  destruct x as [e [[s0 s1] mo]]. apply RX_step; [apply renders_enc_obs|].
  right. intros NB. destruct mo; [reflexivity..|contradiction].
Qed.
