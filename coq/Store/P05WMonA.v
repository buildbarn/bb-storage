(** C05, idempotence: the R05 monitor on the model's observations
    with the model's own write indication ([enc_obs05]); helper lemmas. *)
From Coq Require Import Relations.
From Coq Require Import ZifyBool.
From BBS Require Import Common.Sx Common.SxFactsMA Store.Model Run.RStore Run.R01 Run.R05.
From BBS Require Import Store.P05Mon.
Import ListNotations.
Open Scope Z_scope.

Definition m05w_step (w : world) (m : m05) (x : op * (state * state * out)) : m05 :=
  let '(e, (s0, s1, mo)) := x in m05_step w m (e, (s0, s1, mo), enc_obs05 w e s0 s1 mo).

Definition mon05w_model (w : world) (es : list op) : list Z :=
  dedupZ (t_viol (fold_left (m05w_step w) (run_x w es) m05_init)).

Theorem mon05_on_run05 inp : mon05 inp (run05 inp) = mon05w_model (dec_world inp) (dec_ops inp).
Proof.
  unfold mon05, run05, mon05w_model, run_x. cbn [sx_list]. f_equal. f_equal.
  rewrite fold_left_combine_map. apply fold_left_ext.
  intros a [e [[s0 s1] mo]]. reflexivity.
Qed.

(** [run05] and [run_store] differ in the last field only *)
Lemma enc_obs05_agrees w e s0 s1 mo : obs_agree (enc_obs (w_cfg w) e s0 s1 mo) (enc_obs05 w e s0 s1 mo) = true.
Proof. unfold obs_agree. destruct mo; cbn [enc_obs enc_obs05 sx_list app firstn]; apply SxFactsMA.sx_eqb_refl. Qed.

Lemma all2b_map {X} (f g : X -> sx) (h : sx -> sx -> bool) : (forall x, h (f x) (g x) = true) ->
  forall l, all2b h (map f l) (map g l) = true.
Proof. intros H. induction l as [|x t IH]; cbn; [reflexivity|]. rewrite H, IH. reflexivity. Qed.

Theorem run05_agrees inp : all2b obs_agree (sx_list (run_store inp)) (sx_list (run05 inp)) = true.
Proof.
  unfold run_store, run05. cbn [sx_list]. apply all2b_map. intros [e [[s0 s1] mo]]. apply enc_obs05_agrees.
Qed.

Definition wbit (w : world) (e : op) (s0 s1 : state) : Z := if wrote w s0 e s1 then 1 else 0.

Lemma obk w e s0 s1 mo : ob_kind (enc_obs05 w e s0 s1 mo) = out_kind mo.
Proof. destruct mo; reflexivity. Qed.
Lemma obc w e s0 s1 mo : ob_code (enc_obs05 w e s0 s1 mo) = out_code mo.
Proof. destruct mo; reflexivity. Qed.
Lemma obw w e s0 s1 mo : ob_writes (enc_obs05 w e s0 s1 mo) = match mo with Bad => 0 | _ => wbit w e s0 s1 end.
Proof. destruct mo; reflexivity. Qed.
Lemma obok w e s0 s1 mo : ob_ok (enc_obs05 w e s0 s1 mo) = out_ok mo.
Proof. destruct mo; reflexivity. Qed.
Lemma obmiss w e s0 s1 c mm : sx_nats (sx_nth (enc_obs05 w e s0 s1 (Missing c mm)) 2) = mm.
Proof. change (sx_nth (enc_obs05 w e s0 s1 (Missing c mm)) 2) with (of_nats mm). apply sx_nats_of_nats. Qed.
Lemma renders_enc_obs05 w e s0 s1 mo : renders (enc_obs05 w e s0 s1 mo) mo.
Proof. split; [apply obk|]. split; [apply obc|]. intros c mm ->. apply obmiss. Qed.
Lemma wbit_range w e s0 s1 : wbit w e s0 s1 = 0 \/ wbit w e s0 s1 = 1.
Proof. unfold wbit. destruct (wrote w s0 e s1); auto. Qed.
