(** C01 proofs: [unpin] (dropping a block reference) preserves the invariant.
    The allocator part is proved against a relational description of the
    three shapes of the resulting state (use count of a listed block / of a
    zombie decremented; zombie removed and its region freed). *)
From Coq Require Import List NArith ZArith Bool Arith Lia Permutation ZifyN ZifyNat ZifyBool.
From BBS Require Import Store.Model Store.P01Inv Store.P01OpsB1.
Import ListNotations.
Open Scope N_scope.

Definition same_but (s s' : state) (bl zb : list block) (fr : list nat) : Prop :=
  s_blocks s' = bl /\ s_zombies s' = zb /\ s_free s' = fr /\
  s_next_region s' = s_next_region s /\ s_next_uid s' = s_next_uid s /\ s_dev s' = s_dev s /\
  s_old s' = s_old s /\ s_cur s' = s_cur s /\ s_new s' = s_new s /\
  s_released s' = s_released s /\ s_tbr s' = s_tbr s /\ s_index s' = s_index s.

Ltac sb H := destruct H as (Eb & Ez & Ef & Enr & Enu & Ed & Eo & Ec & En & Er & Et & Ei).

(** what [unpin] preserves, as seen by claims and index entries *)
Record UFrame (cl : list claim) (s s' : state) (uid : nat) : Prop := {
  f_rel : s_released s' = s_released s;
  f_tbr : s_tbr s' = s_tbr s;
  f_idx : s_index s' = s_index s;
  f_dev : s_dev s' = s_dev s;
  f_nuid : s_next_uid s' = s_next_uid s;
  f_len : length (s_blocks s') = length (s_blocks s);
  f_uid_at : forall abs, uid_at s' abs = uid_at s abs;
  f_other : forall u, u <> uid -> binfo s' u = binfo s u;
  f_this : binfo s' uid = binfo s uid \/
           (binfo s' uid = None /\ nrefs uid cl = 0%nat /\ forall abs, uid_at s abs <> Some uid);
}.

Lemma map_uid_in f u l b' :
  In b' (map_uid f u l) -> In b' l \/ exists b, In b l /\ b_uid b = u /\ b' = f b.
Proof.
  induction l as [|a l IH]; simpl; [contradiction|].
  destruct (Nat.eqb (b_uid a) u) eqn:E.
  - intros [<-|H]; [|auto]. right. exists a. apply Nat.eqb_eq in E. auto.
  - intros [<-|H]; [auto|]. destruct (IH H) as [H'|(b & Hb & Hu & Hf)]; [auto|].
    right. exists b. auto.
Qed.

Definition dec_use (b : block) : block := set_use b (pred (b_use b)).

Lemma dec_use_view b : bview (dec_use b) = bview b.
Proof. reflexivity. Qed.

(** how the use counts of a list relate to those of the list in [s] *)
Definition use_rel (uid : nat) (l l' : list block) : Prop :=
  forall b', In b' l' ->
    exists b, In b l /\ b_uid b' = b_uid b /\
              (b_use b' = b_use b \/ (b_uid b = uid /\ b_use b' = pred (b_use b))).

Lemma use_rel_refl uid l : use_rel uid l l.
Proof. intros b Hb. exists b. auto. Qed.

Lemma use_rel_dec uid l : use_rel uid l (map_uid dec_use uid l).
Proof.
  intros b' Hb'. destruct (map_uid_in _ _ _ _ Hb') as [H|(b & Hb & Hu & ->)].
  - exists b'. auto.
  - exists b. split; [exact Hb|]. split; [reflexivity|]. right. auto.
Qed.

Lemma shape_case cfg s s' cl c uid bl zb :
  AInv cfg s -> UInv (c :: cl) s -> cref uid c = 1%nat ->
  same_but s s' bl zb (s_free s) ->
  map bview bl = map bview (s_blocks s) -> map bview zb = map bview (s_zombies s) ->
  use_rel uid (s_blocks s) bl -> use_rel uid (s_zombies s) zb ->
  AInv cfg s' /\ UInv cl s' /\ UFrame cl s s' uid.
Proof.
  intros HA [HU1 HU2] Hc HS H1 H2 R1 R2. sb HS.
  assert (V : sview s s') by (constructor; congruence).
  split; [exact (AInv_view _ _ V _ HA)|split].
  - constructor.
    + rewrite Eb. intros b' Hb'. destruct (R1 b' Hb') as (b & Hb & Eu & Hu).
      specialize (HU1 b Hb). rewrite nrefs_cons in HU1. rewrite Eu.
      destruct Hu as [Hu|[Hu Hu']]; [lia|]. rewrite Hu in *. lia.
    + rewrite Ez. intros b' Hb'. destruct (R2 b' Hb') as (b & Hb & Eu & Hu).
      specialize (HU2 b Hb). rewrite nrefs_cons in HU2. rewrite Eu.
      destruct Hu as [Hu|[Hu Hu']]; [lia|]. rewrite Hu in *. lia.
  - constructor; auto.
    + apply (sv_len _ _ V).
    + apply (sv_uid_at _ _ V).
    + intros u _. apply (sv_binfo _ _ V).
    + left. apply (sv_binfo _ _ V).
Qed.

Lemma find_uid_filter_same uid l : find_uid uid (filter (not_uid uid) l) = None.
Proof.
  apply find_uid_none_intro. intros b Hb. apply In_filter_uid in Hb. apply Hb.
Qed.

Lemma find_uid_filter_other uid u l :
  u <> uid -> find_uid u (filter (not_uid uid) l) = find_uid u l.
Proof.
  intros Hne. induction l as [|a l IH]; simpl; [reflexivity|]. unfold not_uid at 1.
  destruct (Nat.eqb (b_uid a) uid) eqn:E; simpl.
  - apply Nat.eqb_eq in E. destruct (Nat.eqb (b_uid a) u) eqn:E2; [|exact IH].
    apply Nat.eqb_eq in E2. congruence.
  - destruct (Nat.eqb (b_uid a) u); [reflexivity|exact IH].
Qed.

Lemma remove_case cfg s s' cl c uid b :
  AInv cfg s -> UInv (c :: cl) s -> cref uid c = 1%nat ->
  find_uid uid (s_blocks s) = None -> find_uid uid (s_zombies s) = Some b -> (b_use b <= 1)%nat ->
  same_but s s' (s_blocks s) (filter (not_uid uid) (s_zombies s))
           (if in_memory cfg then s_free s else s_free s ++ [b_region b]) ->
  AInv cfg s' /\ UInv cl s' /\ UFrame cl s s' uid.
Proof.
  intros HA [HU1 HU2] Hc E1 E2 Huse HS. sb HS.
  destruct (find_uid_some _ _ _ E2) as [Hbz Hbu].
  assert (Hndz : NoDup (map b_uid (s_zombies s))).
  { pose proof (a_uid_nd _ _ HA) as H. unfold live in H. rewrite map_app in H.
    eapply NoDup_app_r; eauto. }
  pose proof (filter_uid_perm _ _ _ Hndz E2) as Pz.
  assert (PL : Permutation (live s) (b :: live s')).
  { unfold live. rewrite Eb, Ez.
    eapply Permutation_trans; [apply Permutation_app_head; exact Pz|].
    apply Permutation_sym, Permutation_middle. }
  assert (Hsub : forall x, In x (live s') -> In x (live s)).
  { intros x Hx. eapply Permutation_in; [apply Permutation_sym; exact PL|now right]. }
  assert (Hbl : In b (live s)).
  { eapply Permutation_in; [apply Permutation_sym; exact PL|now left]. }
  assert (Hae : abs_end s' = abs_end s).
  { unfold abs_end. now rewrite Er, Eb. }
  split; [|split].
  - constructor.
    + rewrite Eb, Eo, Ec, En. apply (a_len _ _ HA).
    + rewrite Hae, Er, Et. apply (a_rel _ _ HA).
    + pose proof (Permutation_NoDup (Permutation_map b_uid PL) (a_uid_nd _ _ HA)) as H.
      simpl in H. now apply NoDup_cons_iff in H.
    + intros x Hx. rewrite Enu. apply (a_uid_lt _ _ HA _ (Hsub x Hx)).
    + assert (P : Permutation (map b_region (live s) ++ s_free s)
                              (b_region b :: map b_region (live s') ++ s_free s)).
      { apply (Permutation_app_tail (s_free s) (Permutation_map b_region PL)). }
      pose proof (Permutation_NoDup P (a_reg_nd _ _ HA)) as H.
      rewrite Ef. destruct (in_memory cfg).
      * now apply NoDup_cons_iff in H.
      * rewrite app_assoc. eapply Permutation_NoDup; [apply Permutation_cons_append|exact H].
    + intros Hm x Hx. rewrite Enr. apply (a_reg_lt _ _ HA Hm _ (Hsub x Hx)).
    + intros Hm. rewrite Ef, Hm. apply (a_free_im _ _ HA Hm).
    + intros x Hx. apply (a_cur _ _ HA _ (Hsub x Hx)).
    + intros x Hx. rewrite Ed. apply (a_dev_live _ _ HA _ (Hsub x Hx)).
    + rewrite Ef, Ed. intros r Hr. destruct (in_memory cfg).
      * apply (a_dev_free _ _ HA _ Hr).
      * apply in_app_iff in Hr. destruct Hr as [Hr|[<-|[]]].
        -- apply (a_dev_free _ _ HA _ Hr).
        -- right. apply (a_dev_live _ _ HA _ Hbl).
    + rewrite Ei, Hae. apply (a_idx _ _ HA).
  - constructor.
    + rewrite Eb. intros x Hx. specialize (HU1 x Hx). rewrite nrefs_cons in HU1. lia.
    + rewrite Ez. intros x Hx. apply filter_In in Hx. destruct Hx as [Hx _].
      specialize (HU2 x Hx). rewrite nrefs_cons in HU2. lia.
  - constructor; auto.
    + now rewrite Eb.
    + intros abs. unfold uid_at. now rewrite Er, Eb.
    + intros u Hu. unfold binfo, find_block. rewrite Eb, Ez, (find_uid_filter_other _ _ _ Hu). reflexivity.
    + right. split; [|split].
      * unfold binfo, find_block. rewrite Eb, Ez, E1, find_uid_filter_same. reflexivity.
      * specialize (HU2 b Hbz). rewrite nrefs_cons, Hbu in HU2. lia.
      * intros abs Ha. destruct (uid_at_some _ _ _ Ha) as (_ & x & Hx & Hxu). apply nth_error_In in Hx.
        exact (find_uid_none _ _ E1 x Hx Hxu).
Qed.

Lemma unpin_spec cfg s uid c cl :
  AInv cfg s -> UInv (c :: cl) s -> cref uid c = 1%nat -> binfo s uid <> None ->
  AInv cfg (unpin cfg s uid) /\ UInv cl (unpin cfg s uid) /\ UFrame cl s (unpin cfg s uid) uid.
Proof.
  intros HA HU Hc Hb. unfold unpin.
  destruct (find_uid uid (s_blocks s)) as [b0|] eqn:E1.
  - eapply shape_case with (bl := map_uid dec_use uid (s_blocks s)) (zb := s_zombies s); eauto.
    + repeat (split; [reflexivity|]); reflexivity.
    + apply map_uid_view, dec_use_view.
    + apply use_rel_dec.
    + apply use_rel_refl.
  - destruct (find_uid uid (s_zombies s)) as [b|] eqn:E2.
    + destruct (Nat.leb (b_use b) 1) eqn:El.
      * apply Nat.leb_le in El.
        eapply remove_case; eauto.
        destruct (in_memory cfg); repeat (split; [reflexivity|]); reflexivity.
      * eapply shape_case with (bl := s_blocks s) (zb := map_uid dec_use uid (s_zombies s)); eauto.
        -- repeat (split; [reflexivity|]); reflexivity.
        -- apply map_uid_view, dec_use_view.
        -- apply use_rel_refl.
        -- apply use_rel_dec.
    + exfalso. apply Hb. unfold binfo, find_block. now rewrite E1, E2.
Qed.

Section Frame.
Variables (w : world) (cl : list claim) (s s' : state) (uid : nat).
Hypothesis F : UFrame cl s s' uid.

Lemma fr_abs_end : abs_end s' = abs_end s.
Proof. unfold abs_end. now rewrite (f_rel _ _ _ _ F), (f_len _ _ _ _ F). Qed.

Lemma fr_loc_valid l : loc_valid s' l = loc_valid s l.
Proof. unfold loc_valid. now rewrite (f_rel _ _ _ _ F), (f_len _ _ _ _ F), (f_tbr _ _ _ _ F). Qed.

Lemma fr_binfo_listed abs u : uid_at s abs = Some u -> binfo s' u = binfo s u.
Proof.
  intros Hu. destruct (Nat.eq_dec u uid) as [->|Hne]; [|now apply (f_other _ _ _ _ F)].
  destruct (f_this _ _ _ _ F) as [H|(_ & _ & H)]; [exact H|]. exfalso. exact (H abs Hu).
Qed.

Lemma fr_binfo_ref c : In c cl -> cref (c_uid c) c = 1%nat -> binfo s' (c_uid c) = binfo s (c_uid c).
Proof.
  intros Hc Hr. destruct (Nat.eq_dec (c_uid c) uid) as [E|Hne]; [|now apply (f_other _ _ _ _ F)].
  destruct (f_this _ _ _ _ F) as [H|(_ & H & _)]; [now rewrite E|].
  pose proof (nrefs_zero_in _ _ _ H Hc) as H0. rewrite <- E in H0. lia.
Qed.

Lemma fr_binfo_some u x : binfo s' u = Some x -> binfo s u = Some x.
Proof.
  destruct (Nat.eq_dec u uid) as [->|Hne]; [|now rewrite (f_other _ _ _ _ F)].
  destruct (f_this _ _ _ _ F) as [H|(H & _)]; rewrite H; [auto|discriminate].
Qed.

Lemma fr_cu_ok wr o : cu_ok w s wr o -> cu_ok w s' wr o.
Proof.
  intros (H0 & H1 & H2 & H3). unfold cu_ok.
  rewrite fr_abs_end, (f_nuid _ _ _ _ F), (f_tbr _ _ _ _ F), (f_dev _ _ _ _ F), (f_uid_at _ _ _ _ F).
  split; [exact H0|]. split; [exact H1|]. split.
  - intros cur reg Hb. apply (H2 cur reg). now apply fr_binfo_some.
  - intros Ht. destruct (H3 Ht) as (cur & reg & Hu & Hb & Hd).
    exists cur, reg. rewrite (fr_binfo_listed _ _ Hu). auto.
Qed.

Lemma fr_claim_ok c : In c cl -> claim_ok w s c -> claim_ok w s' c.
Proof.
  intros Hc. destruct c as [wr acc|u l o|wr o]; cbn [claim_ok].
  - intros (cur & reg & H). exists cur, reg.
    rewrite fr_abs_end, (f_rel _ _ _ _ F), (f_dev _ _ _ _ F), (f_uid_at _ _ _ _ F).
    pose proof (fr_binfo_ref (CW wr acc) Hc (cref_self_cw wr acc)) as Hbb.
    cbn [c_uid] in Hbb. rewrite Hbb. exact H.
  - intros (cur & reg & H). exists cur, reg.
    rewrite (f_dev _ _ _ _ F).
    pose proof (fr_binfo_ref (CR u l o) Hc (cref_self_cr u l o)) as Hbb.
    cbn [c_uid] in Hbb. rewrite Hbb. exact H.
  - apply fr_cu_ok.
Qed.

Lemma fr_idx_ok k l : idx_ok w s k l -> idx_ok w s' k l.
Proof.
  intros (u & cur & reg & Hu & Hb & H). exists u, cur, reg.
  rewrite (f_dev _ _ _ _ F), (f_uid_at _ _ _ _ F), (fr_binfo_listed _ _ Hu). auto.
Qed.

Lemma CInv_frame : CInv w cl s -> CInv w cl s'.
Proof.
  intros [c1 c2 c3 c4]. constructor.
  - intros c Hc. apply fr_claim_ok; auto.
  - intros k l. rewrite (f_idx _ _ _ _ F), fr_loc_valid. intros Hi Hv. apply fr_idx_ok; auto.
  - exact c3.
  - intros wr acc k l. rewrite (f_idx _ _ _ _ F), fr_loc_valid, (f_uid_at _ _ _ _ F). apply c4.
Qed.
End Frame.

Lemma claim_ref_binfo w s c : cref (c_uid c) c = 1%nat -> claim_ok w s c -> binfo s (c_uid c) <> None.
Proof.
  destruct c as [wr acc|u l o|wr o]; cbn [claim_ok c_uid].
  - intros _ (cur & reg & H & _). congruence.
  - intros _ (cur & reg & H & _). congruence.
  - simpl. discriminate.
Qed.

(** a pinned claim (writer or reader) gives its reference back *)
Lemma unpin_inv : forall w c cl s,
  DInv w (c :: cl) s -> cref (c_uid c) c = 1%nat -> DInv w cl (unpin (w_cfg w) s (c_uid c)).
Proof.
  intros w c cl s [HA HU HC] Hr.
  assert (Hb : binfo s (c_uid c) <> None).
  { apply (claim_ref_binfo w); [exact Hr|]. apply (c_claims _ _ _ HC). now left. }
  destruct (unpin_spec _ _ _ _ _ HA HU Hr Hb) as (HA' & HU' & F).
  constructor; [exact HA'|exact HU'|].
  eapply CInv_frame; [exact F|]. eapply CInv_drop; eauto.
Qed.

(** a writer that has written the complete content of object o drops its
    reference but keeps the (now read-only) range *)
Lemma cw_to_cu_inv : forall w cl s wr acc o,
  DInv w (CW wr acc :: cl) s -> acc = content w o -> N.of_nat (length acc) = wr_size wr ->
  DInv w (CU wr o :: cl) (unpin (w_cfg w) s (wr_uid wr)).
Proof.
  intros w cl s wr acc o [HA HU HC] Hacc Hlen.
  pose proof (c_claims _ _ _ HC _ (or_introl eq_refl)) as Hcw. cbn [claim_ok] in Hcw.
  destruct Hcw as (cur & reg & Hbi & Hle & _ & Hdat & Habs & Hlisted).
  assert (Hb : binfo s (wr_uid wr) <> None) by congruence.
  destruct (unpin_spec _ _ _ _ _ HA HU (cref_self_cw wr acc) Hb) as (HA' & HU' & F).
  set (s' := unpin (w_cfg w) s (wr_uid wr)) in *.
  pose proof (CInv_frame w _ _ _ _ F (CInv_drop _ _ _ _ HC)) as HC'.
  constructor; [exact HA'| |].
  - destruct HU' as [u1 u2]. constructor.
    + intros b Hx. rewrite nrefs_cons. simpl. now apply u1.
    + intros b Hx. rewrite nrefs_cons. simpl. now apply u2.
  - constructor.
    + intros c [<-|Hc]; [|now apply (c_claims _ _ _ HC')].
      cbn [claim_ok]. unfold cu_ok.
      rewrite (fr_abs_end _ _ _ _ F), (f_nuid _ _ _ _ F), (f_tbr _ _ _ _ F),
        (f_dev _ _ _ _ F), (f_uid_at _ _ _ _ F).
      split; [|split; [exact Habs|split]].
      * destruct (binfo_in _ _ _ _ Hbi) as (b & _ & Hbl & Hbu & _). rewrite <- Hbu.
        apply (a_uid_lt _ _ HA _ Hbl).
      * intros cur' reg' Hb'. apply (fr_binfo_some _ _ _ _ F) in Hb'.
        rewrite Hbi in Hb'. inversion Hb'; subst. exact Hle.
      * intros Ht. pose proof (a_rel _ _ HA) as [Hrel _].
        assert (Hu : uid_at s (wr_abs wr) = Some (wr_uid wr)) by (apply Hlisted; lia).
        exists cur, reg. rewrite (fr_binfo_listed _ _ _ _ F _ _ Hu).
        split; [exact Hu|]. split; [exact Hbi|]. rewrite <- Hlen, <- Hacc. exact Hdat.
    + exact (c_idx _ _ _ HC').
    + split; [|exact (c_sep _ _ _ HC')].
      intros y Hy. pose proof (proj1 (c_sep _ _ _ HC) y Hy) as Hd.
      unfold cdisj in *. cbn [c_isw c_uid c_off c_size orb] in *.
      intros Hw. apply Hd. reflexivity.
    + intros wr' acc' k l [Hc|Hc]; [discriminate|]. now apply (c_sep_idx _ _ _ HC' wr' acc').
Qed.
