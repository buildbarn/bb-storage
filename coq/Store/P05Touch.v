(** C05: where a touch places the object (statements in terms of
    [index_get]) and the model-integrity hypothesis in prefix form. *)
From Coq Require Import List NArith ZArith Bool Arith Lia Relations.
From Coq Require Import ZifyN ZifyNat ZifyBool.
From BBS Require Import Common.Sx Store.Model Store.Wf Store.WfTids Run.RStore Run.R01 Run.R05.
From BBS Require Import Store.P05Cnt Store.P05Frame Store.P05Ops Store.P05Step Store.P05Surv Store.P05Mon Store.P05Inv Store.P05Main.
Import ListNotations.
Open Scope N_scope.

Definition loc_le (a b : loc) : Prop := l_abs a < l_abs b \/ (l_abs a = l_abs b /\ l_off a <= l_off b).
Lemma loc_older_spec a b : loc_older a b = true <-> (l_abs a < l_abs b \/ (l_abs a = l_abs b /\ l_off a < l_off b)).
Proof. unfold loc_older. rewrite orb_true_iff, andb_true_iff, !N.ltb_lt, N.eqb_eq. tauto. Qed.

Lemma newest_max cands : forall best r, newest cands best = Some r ->
  (forall x, In x cands -> loc_le x r) /\ (forall b, best = Some b -> loc_le b r).
Proof.
  induction cands as [|x t IH]; intros best r H; cbn in H.
  - split; [intros ? []|]. intros b E. rewrite E in H. inversion H; subst. unfold loc_le; lia.
  - apply IH in H. destruct H as [H1 H2]. destruct best as [b|].
    + destruct (loc_older b x) eqn:E.
      * specialize (H2 x eq_refl). apply loc_older_spec in E. split.
        -- intros y [Ey|Hy]; [subst y; exact H2|auto].
        -- intros b' Eb; inversion Eb; subst. unfold loc_le in *. lia.
      * specialize (H2 b eq_refl). split.
        -- intros y [Ey|Hy]; [rewrite <- Ey|auto].
           assert (N : ~ (l_abs b < l_abs x \/ (l_abs b = l_abs x /\ l_off b < l_off x))).
           { rewrite <- loc_older_spec. congruence. }
           unfold loc_le in *. lia.
        -- intros b' Eb; inversion Eb; subst. exact H2.
    + specialize (H2 x eq_refl). split; [|intros; discriminate].
      intros y [Ey|Hy]; [subst y; exact H2|auto].
Qed.

Lemma index_get_newest s k l :
  In (k, l) (s_index s) -> loc_valid s l = true ->
  exists l', index_get s k = Some l' /\ l_abs l <= l_abs l' /\ loc_valid s l' = true.
Proof.
  intros HI V. destruct (index_get s k) as [l'|] eqn:E; [|exfalso; eapply index_get_of_valid; eauto].
  exists l'. split; [reflexivity|]. pose proof E as E'. apply index_get_some in E'. destruct E' as [_ V'].
  split; [|exact V'].
  unfold index_get in E. apply newest_max in E. destruct E as [E _].
  assert (X : loc_le l l').
  { apply E. apply in_map_iff. exists (k, l). split; [reflexivity|]. apply filter_In. split; [exact HI|]. cbn.
    rewrite V, (proj2 (key_eqb_eq k k) eq_refl). reflexivity. }
  unfold loc_le in X. lia.
Qed.

(** "the object is found under one of its lookup keys at a location that is
    not old" *)
Definition found_fresh (w : world) (s : state) (o i : nat) : Prop :=
  exists k l, In k (lookup_keys w o i) /\ index_get s k = Some l /\ needs_refresh s l = false.

Lemma placed_fresh_found w s o i T : placed w s o i T -> kfresh (proj s) T -> found_fresh w s o i.
Proof.
  intros (k & l & A & B & C) (F1 & F2 & F3). unfold k_end in F3. cbn in F1, F2, F3. subst T.
  assert (V : loc_valid s l = true) by (unfold loc_valid; lia).
  destruct (index_get_newest s k l B V) as (l' & G & LE & V').
  exists k, l'. split; [exact A|]. split; [exact G|]. unfold needs_refresh. lia.
Qed.

(** Get: when the reader is opened, the object either already is at a
    location that is not old (found directly, synchronised from the
    canonical entry, or copied at once), or a copy into a new block has been
    started whose completion - at consumption - will enter it under a lookup
    key. *)
Theorem get_open_places_object w s tid o i s1 :
  kinv (w_cfg w) (proj s) ->
  step w s (OGetOpen tid o i) = (s1, Parked) ->
  exists u l r f, thr_get (s_threads s1) tid = Some (TGet o u l r f) /\
    match r with
    | None => found_fresh w s1 o i
    | Some wr => (exists k, In k f /\ In k (lookup_keys w o i)) /\
                 s_released s1 + N.of_nat (s_old s1) <= wr_abs wr /\
                 wr_abs wr < s_released s1 + N.of_nat (length (s_blocks s1))
    end.
Proof.
  intros K ES.
  destruct (step_getopen_parked w s tid o i s1 K ES) as (t & s0 & -> & _ & (u & l & r & f & -> & _ & HP')).
  exists u, l, r, f. split; [rewrite thr_get_set, Nat.eqb_refl; reflexivity|].
  destruct r as [wr|].
  - exact HP'.
  - destruct HP' as (T & PL & KF). exact (placed_fresh_found w s0 o i T PL KF).
Qed.

(** Get: a reader without a pending copy leaves the index alone; with a
    pending copy a successful consumption enters the copy under the lookup
    key. *)
Theorem get_consume_completes_copy w s tid o u l wr f s1 bytes :
  thr_get (s_threads s) tid = Some (TGet o u l (Some wr) f) ->
  wr_abs wr < s_released s + N.of_nat (length (s_blocks s)) ->
  step w s (OGetConsume tid) = (s1, Done cOK bytes) ->
  forall k, In k f -> exists l', index_get s1 k = Some l' /\ wr_abs wr <= l_abs l'.
Proof.
  intros HT HB ES k Hk.
  destruct (step_getconsume w s tid s1 _ ES) as [[X _]|(o' & u' & l' & r' & f' & code & bs & s0 & HT' & GC & -> & X)];
    [discriminate|].
  rewrite HT in HT'. inversion HT'; subst o' u' l' r' f'. inversion X; subst code bs.
  apply get_consume_spec in GC. destruct GC as ((R & _) & HR).
  destruct (HR eq_refl wr eq_refl) as (nl & A1 & A2 & A3).
  assert (V : loc_valid s0 nl = true).
  { unfold loc_valid. rewrite A1.
    pose proof (creach_mono _ _ _ R) as M. unfold kmono, k_end in M. cbn in M. lia. }
  destruct (index_get_newest s0 k nl (A3 k Hk) V) as (l2 & G & LE & _).
  exists l2. split; [exact G|lia].
Qed.

(** FindMissing with one digest: reported present = found at a location
    that is not old when the call returns. *)
Lemma find_missing_single_present w s o i s1 :
  kinv (w_cfg w) (proj s) ->
  step w s (OFindMissing [(o, i)]) = (s1, Missing cOK []) -> fm_present w s1 o i.
Proof.
  intros K ES. destruct (step_fm_ok w s _ s1 _ K ES) as (m & FM & X').
  apply (find_missing_single w s o i m s1 K FM).
  intros H. apply sort_nat_in in H. rewrite <- X' in H. destruct H.
Qed.

Theorem find_missing_single_places_object w s o i s1 :
  kinv (w_cfg w) (proj s) ->
  step w s (OFindMissing [(o, i)]) = (s1, Missing cOK []) ->
  found_fresh w s1 o i.
Proof.
  intros K ES. destruct (find_missing_single_present w s o i s1 K ES) as (T & PL & KF).
  eapply placed_fresh_found; eauto.
Qed.

(** FindMissing with several digests: every digest reported present was
    found at a location that was not old at SOME moment during the call
    (possibly before later refreshes of the same call rotated blocks). *)
Theorem find_missing_multi_places_object w s ds m s1 :
  kinv (w_cfg w) (proj s) ->
  step w s (OFindMissing ds) = (s1, Missing cOK m) ->
  forall pos o i, nth_error ds pos = Some (o, i) -> ~ In pos m ->
    exists sm, found_fresh w sm o i /\ (s_pushbacks s <= s_pushbacks sm)%nat /\
               (s_pushbacks sm <= s_pushbacks s1)%nat /\ incl (s_index sm) (s_index s1).
Proof.
  intros K ES pos o i HN NM.
  destruct (step_fm_ok w s _ s1 _ K ES) as (m0 & FM & ->).
  apply find_missing_spec in FM; [|exact K]. destruct FM as (_ & HP).
  pose proof (enumerate_nth ds 0 pos (o, i) HN) as HI. cbn [Nat.add] in HI.
  assert (NM0 : ~ In pos m0) by (intros F; apply NM, sort_nat_in, F).
  destruct (HP pos o i HI NM0) as (sm & (R1 & _) & (R2 & I2 & _) & (T & PL & KF)).
  exists sm. split; [eapply placed_fresh_found; eauto|].
  pose proof (creach_mono _ _ _ R1) as M1. pose proof (creach_mono _ _ _ R2) as M2.
  unfold kmono in M1, M2. cbn in M1, M2. split; [lia|]. split; [lia|exact I2].
Qed.

Definition model_integrity (w : world) (es : list op) : Prop :=
  forall es1 es2, es = es1 ++ es2 -> existsb is_corrupt es1 = false ->
    s_negs (fst (run w (init_state (w_cfg w)) es1)) = O.

Lemma integ_of_prefixes w : forall es s,
  (forall es1 es2, es = es1 ++ es2 -> existsb is_corrupt es1 = false -> s_negs (fst (run w s es1)) = s_negs s) ->
  integ w s es.
Proof.
  induction es as [|e t IH]; intros s H; cbn [integ]; [exact I|].
  destruct (is_corrupt e) eqn:IC; [exact I|].
  assert (E1 : s_negs (fst (step w s e)) = s_negs s).
  { specialize (H [e] t eq_refl). cbn [existsb] in H. rewrite IC in H. specialize (H eq_refl).
    rewrite run_cons in H. exact H. }
  split; [exact E1|].
  apply IH. intros es1 es2 E NC. rewrite E1.
  specialize (H (e :: es1) es2). rewrite run_cons in H. apply H.
  - rewrite E. reflexivity.
  - cbn [existsb]. rewrite IC. exact NC.
Qed.

Lemma integ_of_model_integrity w es : model_integrity w es -> integ w (init_state (w_cfg w)) es.
Proof. intros H. apply integ_of_prefixes. intros es1 es2 E NC. rewrite (H es1 es2 E NC). reflexivity. Qed.

(** bridge to C01: its theorem "a corruption-free well-formed schedule ends
    with s_negs = 0" gives [model_integrity] for every well-formed schedule,
    because well-formedness is closed under prefixes *)
Lemma wf_ops_prefix w : forall es1 es2 pending,
  Wf.wf_ops w pending (es1 ++ es2) = true -> Wf.wf_ops w pending es1 = true.
Proof.
  induction es1 as [|e t IH]; intros es2 pending H; [reflexivity|].
  cbn [app] in H. destruct e; cbn [Wf.wf_ops] in *;
    try (eapply IH; eauto; fail);
    try (apply andb_true_iff in H; destruct H as [H1 H2]; rewrite H1; cbn [andb]; eapply IH; eauto).
Qed.

Definition C01_integrity_statement (w : world) : Prop :=
  forall es, Wf.wf_ops w [] es = true -> wf_tids es = true ->
             forallb (fun e => negb (is_corrupt e)) es = true ->
             s_negs (fst (run w (init_state (w_cfg w)) es)) = O.

Lemma model_integrity_from_C01 w es :
  C01_integrity_statement w -> Wf.wf_ops w [] es = true -> wf_tids es = true -> model_integrity w es.
Proof.
  intros HC WO WT es1 es2 E NC. subst es. apply HC.
  - eapply wf_ops_prefix; eauto.
  - unfold wf_tids in *. eapply wf_tids_from_prefix; eauto.
  - clear - NC. induction es1 as [|e t IH]; [reflexivity|]. cbn in *.
    apply orb_false_iff in NC. destruct NC as [N1 N2]. rewrite N1. cbn. auto.
Qed.
