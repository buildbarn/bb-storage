(** C05: the frame property of [step]: counters move by atoms, index
    entries are only added, a parked reader is changed only by its own
    events; the index invariants of P05WInv.v / P05WEnd.v survive; an event
    answered [Bad] leaves the state alone. *)
From Coq Require Import List ZArith Bool.
From Coq Require Import ZifyBool.
From BBS Require Import Store.Model Store.WfTids Store.P05Cnt Store.P05Frame Store.P05WInv Store.P05WEnd Store.P05Ops.
Import ListNotations.
Open Scope N_scope.

Definition thr_frame (e : op) (s s1 : state) : Prop :=
  forall tid o u l r f, thr_get (s_threads s1) tid = Some (TGet o u l r f) ->
    thr_get (s_threads s) tid = Some (TGet o u l r f) \/ start_tid e = Some tid.

Definition not_tget (t : thread) : Prop := forall o u l r f, t <> TGet o u l r f.

Definition SF (c : config) (e : op) (s s1 : state) : Prop :=
  creach c (proj s) (proj s1) /\ incl (s_index s) (s_index s1) /\ thr_frame e s s1.

Definition SFW (w : world) (e : op) (s s1 : state) (out : out) : Prop :=
  SF (w_cfg w) e s s1 /\ (winv w s -> winv w s1) /\ (out = Bad -> s1 = s).

Lemma sfw_same w e s s0 out : ext w s s0 -> out <> Bad -> SFW w e s s0 out.
Proof.
  intros [(A & B & C) W] NB. split; [|split; [exact W|intros; contradiction]]. split; [exact A|]. split; [exact B|].
  intros tid o u l r f H. left. congruence.
Qed.
Lemma sfw_refl w e s out : SFW w e s s out.
Proof.
  split; [|auto]. split; [apply creach_refl|]. split; [apply incl_refl|]. intros tid o u l r f H. left. exact H.
Qed.
Lemma sfw_set w e s s0 tid t :
  ext w s s0 -> (start_tid e = Some tid \/ not_tget t) -> (winv w s -> tgood w s0 t) ->
  SFW w e s (thr_set s0 tid t) Parked.
Proof.
  intros [(A & B & C) W] D T. split; [|split; [intros HI; apply winv_set; auto|discriminate]].
  split; [exact A|]. split; [exact B|].
  intros tid' o u l r f H. rewrite thr_get_set in H.
  destruct (Nat.eqb tid tid') eqn:E.
  - apply Nat.eqb_eq in E; subst tid'. destruct D as [D|D]; [auto|]. inversion H. exfalso. eapply D; eauto.
  - left. congruence.
Qed.
Lemma sfw_rm w e s s0 tid c b : ext w s s0 -> SFW w e s (thr_rm s0 tid) (Done c b).
Proof.
  intros [(A & B & C) W]. split; [|split; [intros HI; apply winv_rm; auto|discriminate]].
  split; [exact A|]. split; [exact B|].
  intros tid' o u l r f H. rewrite thr_get_rm in H.
  destruct (Nat.eqb tid tid'); [discriminate|]. left. congruence.
Qed.

Lemma put_start_spec w s o i r s1 :
  put_start w s o i = (r, s1) ->
  ext w s s1 /\ match r with Ok t => tgood w s1 t | Err _ => True end.
Proof.
  unfold put_start.
  destruct (if c_hier (w_cfg w) then match index_get s (canonical_key o) with Some l => negb (needs_refresh s l) | None => false end else false).
  - intros H; inversion H; subst. split; [apply ext_refl|exact (conj I (fun _ => I))].
  - destruct (ocn_put (w_cfg w) s (osize w o)) as [r0 s0] eqn:E.
    pose proof (ocn_put_spec _ _ _ _ _ E) as (F & _).
    destruct r0; intros H; inversion H; subst; (split; [apply ext_fr; exact F|]); [|exact I].
    exact (conj (ocn_put_wr _ _ _ _ _ E) (fun _ => I)).
Qed.

Lemma mk_fold_ext w i (slices : list (nat * (N * N))) ploc : forall s0 s,
  ext w s0 s -> (winv w s0 -> c_hier (w_cfg w) = false /\ l_abs ploc < k_end (proj s)) ->
  ext w s0 (fold_left (fun acc '(cho, (off, len)) =>
                         index_put acc (flat_key (w_cfg w) cho i)
                                   {| l_abs := l_abs ploc; l_off := l_off ploc + off; l_size := len |})
                      slices s).
Proof.
  induction slices as [|[cho [off len]] t IH]; intros s0 s F C; cbn [fold_left]; [exact F|].
  apply IH; [apply ext_put; [exact F|exact C]|exact C].
Qed.

Theorem step_ext w s e s1 out :
  kinv (w_cfg w) (proj s) -> step w s e = (s1, out) -> SFW w e s s1 out.
Proof.
  intros K H. unfold step in H.
  destruct (may_take_refresh_lock e && refresh_lock_held s).
  { inversion H; subst. apply sfw_refl. }
  destruct (is_corrupt e && reader_open s).
  { inversion H; subst. apply sfw_refl. }
  destruct e as [tid o i|tid data|tid err|tid o i|tid|ds|tid p i ch|tid slices|r off len].
  - (* OPutStart *)
    destruct (thr_get (s_threads s) tid); [inversion H; subst; apply sfw_refl|].
    destruct (put_start w s o i) as [r0 s0] eqn:E. apply put_start_spec in E. destruct E as [F NT].
    destruct r0; inversion H; subst.
    + apply sfw_set; [exact F|left; reflexivity|intros _; exact NT].
    + apply sfw_same; [exact F|discriminate].
  - (* OPutChunk *)
    destruct (thr_get (s_threads s) tid) as [[o i wr acc|o i acc|? ? ? ? ?|? ? ? ? ? ?|?]|] eqn:ET;
      try (inversion H; subst; apply sfw_refl).
    + destruct (wr_size wr <? N.of_nat (length acc + length data)).
      * destruct (finalize (w_cfg w) s wr false) as [r0 s0] eqn:E. apply finalize_spec in E. destruct E as (S0 & _).
        inversion H; subst. apply sfw_rm, ext_same, S0.
      * inversion H; subst. pose proof (same_write_block s (wr_uid wr) (wr_off wr + N.of_nat (length acc)) data) as SW.
        apply sfw_set; [apply ext_same, SW|right; intros ? ? ? ? ?; discriminate|].
        intros HI. exact (conj (wr_ok_same _ _ _ SW (proj1 (winv_thr _ _ _ _ HI ET))) (fun _ => I)).
    + destruct (osize w o <? N.of_nat (length acc + length data)); inversion H; subst.
      * apply sfw_rm, ext_refl.
      * apply sfw_set; [apply ext_refl|right; intros ? ? ? ? ?; discriminate|intros _; exact (conj I (fun _ => I))].
  - (* OPutEnd *)
    destruct (thr_get (s_threads s) tid) as [[o i wr acc|o i acc|? ? ? ? ?|? ? ? ? ? ?|?]|] eqn:ET;
      try (inversion H; subst; apply sfw_refl).
    + destruct (finalize (w_cfg w) s wr (Z.eqb err 0 && bytes_eqb acc (content w o))) as [r0 s0] eqn:E.
      pose proof (finalize_spec _ _ _ _ _ _ E) as (S0 & _).
      destruct r0 as [l|e0]; inversion H; subst; apply sfw_rm; [|apply ext_same, S0].
      apply ext_put_all; [apply ext_same, S0|]. intros HI. split.
      * rewrite (finalize_loc _ _ _ _ _ _ E). exact (wr_ok_same _ _ _ S0 (proj1 (winv_thr _ _ _ _ HI ET))).
      * intros Hh. unfold finalize_keys. rewrite Hh. apply fk_closed_pair.
    + destruct (negb (Z.eqb err 0)); [inversion H; subst; apply sfw_rm, ext_refl|].
      destruct (negb (bytes_eqb acc (content w o))); [inversion H; subst; apply sfw_rm, ext_refl|].
      destruct (index_get s (canonical_key o)) eqn:IC; inversion H; subst; apply sfw_rm; [|apply ext_refl].
      apply index_get_some in IC. apply (ext_copy w s o _ _ (proj1 IC)). intros _. exists i. reflexivity.
  - (* OGetOpen *)
    destruct (thr_get (s_threads s) tid); [inversion H; subst; apply sfw_refl|].
    destruct (get_open w s o i) as [r0 s0] eqn:E. apply get_open_spec in E; [|exact K]. destruct E as (F & HP).
    destruct r0; inversion H; subst.
    + apply sfw_set; [exact F|left; reflexivity|intros _; exact (get_post_tgood _ _ _ _ _ HP)].
    + apply sfw_same; [exact F|discriminate].
  - (* OGetConsume *)
    destruct (thr_get (s_threads s) tid) as [[? ? ? ?|? ? ?|o uid l refresh fkeys|? ? ? ? ? ?|?]|] eqn:ET;
      try (inversion H; subst; apply sfw_refl).
    destruct (get_consume w s o uid l refresh fkeys) as [[code bytes] s0] eqn:E.
    apply get_consume_ext in E; [|intros HI; exact (winv_thr _ _ _ _ HI ET)].
    inversion H; subst. apply sfw_rm; exact E.
  - (* OFindMissing *)
    destruct (find_missing w s ds) as [r0 s0] eqn:E. apply find_missing_ext in E; [|exact K].
    destruct r0; inversion H; subst; apply sfw_same; [exact E|discriminate|exact E|discriminate].
  - (* OGfcStart *)
    destruct (thr_get (s_threads s) tid); [inversion H; subst; apply sfw_refl|].
    destruct (c_hier (w_cfg w)) eqn:Hh.
    + destruct (get_open w s p i) as [r0 s0] eqn:E. apply get_open_spec in E; [|exact K]. destruct E as (F & HP).
      destruct r0 as [t|e0].
      * pose proof (get_post_tgood _ _ _ _ _ HP) as TG.
        destruct HP as (u & l & r & f & -> & _).
        inversion H; subst. apply sfw_set; [exact F|left; reflexivity|intros _; exact TG].
      * inversion H; subst. apply sfw_set; [exact F|left; reflexivity|intros _; exact (conj I (fun _ => I))].
    + destruct (index_get s (flat_key (w_cfg w) p i)) as [pl|]; [|inversion H; subst; apply sfw_refl].
      match type of H with (match ?D with _ => _ end) = _ => destruct D as [[cl uid]|] end.
      * destruct (get_consume w (pin s uid) ch uid cl None []) as [[code bytes] s2] eqn:E.
        apply get_consume_ext in E; [|intros _; exact (conj I (fun _ => fk_closed_nil))].
        inversion H; subst. apply sfw_same; [|discriminate]. eapply ext_trans; [apply ext_same, same_pin|exact E].
      * destruct (block_of_loc s pl) as [b|]; [|inversion H; subst; apply sfw_refl].
        destruct (needs_refresh s pl).
        -- destruct (ocn_put (w_cfg w) (pin s (b_uid b)) (l_size pl)) as [r2 s2] eqn:E.
           pose proof (ocn_put_spec _ _ _ _ _ E) as (F & _).
           assert (F02 : ext w s s2) by (eapply ext_trans; [apply ext_same, same_pin|apply ext_fr; exact F]).
           destruct r2 as [wr|e0]; inversion H; subst.
           ++ pose proof (ocn_put_wr _ _ _ _ _ E) as WO.
              destruct (lockstep (w_cfg w)).
              ** apply sfw_set; [exact F02|left; reflexivity|intros _; split; [exact WO|congruence]].
              ** assert (SS : same s2 (unpin (w_cfg w) (write_block s2 (wr_uid wr) (wr_off wr)
                                                      (read_block s2 (b_uid b) (l_off pl) (l_size pl))) (wr_uid wr)))
                   by (eapply same_trans; [apply same_write_block|apply same_unpin]).
                 apply sfw_set; [eapply ext_trans; [exact F02|apply ext_same, SS]|left; reflexivity|].
                 intros _. split; [exact (wr_ok_same _ _ _ SS WO)|congruence].
           ++ apply sfw_same; [|discriminate]. eapply ext_trans; [exact F02|apply ext_same, same_unpin].
        -- inversion H; subst. apply sfw_set; [apply ext_same, same_pin|left; reflexivity|intros _; split; [exact I|congruence]].
  - (* OGfcSlice *)
    destruct (thr_get (s_threads s) tid) as [[? ? ? ?|? ? ?|o uid l refresh fkeys|p i uid pl refresh pk|e0]|] eqn:ET;
      try (inversion H; subst; apply sfw_refl).
    + destruct (get_consume w s o uid l refresh fkeys) as [[code bytes] s0] eqn:E.
      apply get_consume_ext in E; [|intros HI; exact (winv_thr _ _ _ _ HI ET)].
      inversion H; subst. destruct (Z.eqb code cOK); apply sfw_rm; exact E.
    + (* a flat-mode thread: hierarchical stores never park one *)
      assert (FL : winv w s -> c_hier (w_cfg w) = false).
      { intros HI. destruct (c_hier (w_cfg w)) eqn:Hh; [|reflexivity]. destruct (proj2 (winv_thr _ _ _ _ HI ET) Hh). }
      destruct (read_validated w s p uid pl) as [[valid bytes] s0] eqn:E.
      apply read_validated_spec in E. destruct E as (F0 & _).
      pose proof (same_unpin (w_cfg w) s0 uid) as SU.
      assert (F1 : ext w s (unpin (w_cfg w) s0 uid)) by (eapply ext_trans; [apply ext_fr; exact F0|apply ext_same; exact SU]).
      destruct (negb valid).
      * inversion H; subst. apply sfw_rm.
        destruct refresh as [wr|]; [|exact F1]. destruct (lockstep (w_cfg w)); [|exact F1].
        eapply ext_trans; [exact F1|apply ext_same, same_unpin].
      * destruct refresh as [wr|].
        -- assert (W1 : winv w s -> wr_ok (unpin (w_cfg w) s0 uid) wr).
           { intros HI. apply (wr_ok_same _ _ _ SU). eapply wr_ok_mono; [exact (proj1 F0)|].
             exact (proj1 (winv_thr _ _ _ _ HI ET)). }
           destruct (lockstep (w_cfg w)).
           ++ destruct (finalize (w_cfg w) (write_block (unpin (w_cfg w) s0 uid) (wr_uid wr) (wr_off wr) bytes) wr true) as [r3 s3] eqn:EF.
              pose proof (finalize_spec _ _ _ _ _ _ EF) as (S3 & _).
              assert (S13 : same (unpin (w_cfg w) s0 uid) s3) by (eapply same_trans; [apply same_write_block|exact S3]).
              assert (F3 : ext w s s3) by (eapply ext_trans; [exact F1|apply ext_same, S13]).
              destruct r3 as [nl|e1]; inversion H; subst; apply sfw_rm; [|exact F3].
              assert (HL : winv w s -> c_hier (w_cfg w) = false /\ l_abs nl < k_end (proj s3)).
              { intros HI. split; [exact (FL HI)|]. rewrite (finalize_loc _ _ _ _ _ _ EF). exact (wr_ok_same _ _ _ S13 (W1 HI)). }
              apply mk_fold_ext; [apply ext_put; [exact F3|exact HL]|exact HL].
           ++ destruct (fin_check (unpin (w_cfg w) s0 uid) wr) as [nl|e1] eqn:EF; inversion H; subst; apply sfw_rm; [|exact F1].
              assert (HL : winv w s -> c_hier (w_cfg w) = false /\ l_abs nl < k_end (proj (unpin (w_cfg w) s0 uid))).
              { intros HI. split; [exact (FL HI)|]. rewrite (proj1 (fin_check_spec _ _ _ EF)). exact (W1 HI). }
              apply mk_fold_ext; [apply ext_put; [exact F1|exact HL]|exact HL].
        -- destruct (index_get (unpin (w_cfg w) s0 uid) pk) as [pl'|] eqn:IG; inversion H; subst; apply sfw_rm; [|exact F1].
           apply index_get_some in IG.
           apply mk_fold_ext; [exact F1|]. intros HI. split; [exact (FL HI)|].
           exact (proj1 (proj1 (proj2 F1 HI)) _ _ (proj1 IG)).
    + inversion H; subst. apply sfw_rm, ext_refl.
  - (* OCorrupt *)
    destruct (dev_get (s_dev s) r); inversion H; subst; [apply sfw_refl|apply sfw_same; [apply ext_same, same_upd_dev|discriminate]].
Qed.

Lemma step_frame w s e s1 out :
  kinv (w_cfg w) (proj s) -> step w s e = (s1, out) -> SF (w_cfg w) e s s1.
Proof. intros K H. exact (proj1 (step_ext w s e s1 out K H)). Qed.

Lemma step_bad_same w s e s1 : kinv (w_cfg w) (proj s) -> step w s e = (s1, Bad) -> s1 = s.
Proof. intros K H. exact (proj2 (proj2 (step_ext w s e s1 Bad K H)) eq_refl). Qed.

Theorem step_winv w s e s1 out :
  kinv (w_cfg w) (proj s) -> winv w s -> step w s e = (s1, out) -> winv w s1.
Proof. intros K HI H. exact (proj1 (proj2 (step_ext w s e s1 out K H)) HI). Qed.
