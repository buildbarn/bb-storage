(** C01 proofs: [SInv_init] and [step_all] of P01StepA.v under the names
    [P01_init], [P01_step]; hence the monitor of C01 is silent on every run
    of the model (under the well-formedness hypotheses and the thread-id
    discipline). *)
From Coq Require Import List NArith ZArith Bool Arith.
From BBS Require Import Store.Model Store.Wf Store.WfTids Store.P01Defs Store.P01Inv Store.P01Prov.
From BBS Require Import Store.P01StepA.
Import ListNotations.

Theorem P01_init : forall w, wf_world w = true -> SInv w (init_state (w_cfg w)).
Proof. intros w _. apply SInv_init. Qed.

Theorem P01_step : forall w s e,
  wf_world w = true -> SInv w s -> is_corrupt e = false -> step_wf w s e ->
  SInv w (fst (step w s e)) /\ read_ok w s e (fst (step w s e)) (snd (step w s e)).
Proof.
  intros w s e _ HS Hc Hs. apply step_all; assumption.
Qed.

Theorem P01_final : forall (w : world) (es : list op),
  wf_world w = true -> wf_ops w [] es = true -> wf_tids es = true ->
  mon01_model w es = [].
Proof.
  intros w es Hw Ho Ht.
  apply (P01_assembly SInv (fun _ _ => true)).
  - exact P01_init.
  - intros w0 s e H1 H2 _ H3 H4. exact (P01_step w0 s e H1 H2 H3 H4).
  - exact Hw.
  - exact Ho.
  - exact Ht.
  - apply forallb_forall. intros x _. reflexivity.
Qed.

(** Corruption-free schedules keep the store invariant and never raise a
    negative integrity verdict. *)
Theorem P01_no_negs : forall (w : world) (es : list op),
  wf_world w = true -> wf_ops w [] es = true -> wf_tids es = true ->
  forallb (fun e => negb (is_corrupt e)) es = true ->
  SInv w (fst (run w (init_state (w_cfg w)) es)) /\
  s_negs (fst (run w (init_state (w_cfg w)) es)) = 0%nat.
Proof.
  intros w es Hw Ho Ht Hc.
  apply (P01_run_DS SInv (fun _ _ => true)).
  - exact P01_init.
  - intros w0 s e H1 H2 _ H3 H4. exact (P01_step w0 s e H1 H2 H3 H4).
  - exact Hw.
  - exact Ho.
  - exact Ht.
  - apply forallb_forall. intros x _. reflexivity.
  - exact Hc.
Qed.
