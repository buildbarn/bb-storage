(** C01 proofs: provenance / thread-id part, the model's side.  Decoding of
    observations, association lists and key coverage; then what the
    sub-operations of the store, and each kind of [step], do to the index
    and the thread list: most leave both alone ([same]), the rest leave the
    threads alone and add index entries under known keys ([ext]). *)
From Coq Require Import List NArith ZArith Bool Arith Lia.
From BBS Require Common.SxFactsMA.
From BBS Require Import Common.Sx Store.Model Store.Wf Store.WfTids Run.RStore Run.R01
  Store.P01Defs Store.P01Inv Store.Basics.
Import ListNotations.
Local Open Scope nat_scope.

Section Dec.
  Variables (c : config) (e : op) (s0 s1 : state).
  Lemma dk_done code b : ob_kind (enc_obs c e s0 s1 (Done code b)) = 0%Z. Proof. reflexivity. Qed.
  Lemma dc_done code b : ob_code (enc_obs c e s0 s1 (Done code b)) = code. Proof. reflexivity. Qed.
  Lemma db_done code b : ob_bytes (enc_obs c e s0 s1 (Done code b)) = b.
  Proof. unfold ob_bytes. change (sx_nth (enc_obs c e s0 s1 (Done code b)) 2) with (of_Ns b). apply SxFactsMA.sx_Ns_of_Ns. Qed.
  Lemma dok_done code b : ob_ok (enc_obs c e s0 s1 (Done code b)) = Z.eqb code 0.
  Proof. reflexivity. Qed.
  Lemma dk_parked : ob_kind (enc_obs c e s0 s1 Parked) = 1%Z. Proof. reflexivity. Qed.
  Lemma dok_parked : ob_ok (enc_obs c e s0 s1 Parked) = false. Proof. reflexivity. Qed.
  Lemma dk_missing code d : ob_kind (enc_obs c e s0 s1 (Missing code d)) = 2%Z. Proof. reflexivity. Qed.
  Lemma dc_missing code d : ob_code (enc_obs c e s0 s1 (Missing code d)) = code. Proof. reflexivity. Qed.
  Lemma dm_missing code d : sx_nats (sx_nth (enc_obs c e s0 s1 (Missing code d)) 2) = d.
  Proof. change (sx_nth (enc_obs c e s0 s1 (Missing code d)) 2) with (of_nats d). apply SxFactsMA.sx_nats_of_nats. Qed.
  Lemma dok_missing code d : ob_ok (enc_obs c e s0 s1 (Missing code d)) = false. Proof. reflexivity. Qed.
  Lemma dk_bad : ob_kind (enc_obs c e s0 s1 Bad) = 3%Z. Proof. reflexivity. Qed.
  Lemma dok_bad : ob_ok (enc_obs c e s0 s1 Bad) = false. Proof. reflexivity. Qed.
  Lemma dn_bad : ob_negs (enc_obs c e s0 s1 Bad) = 0%Z. Proof. reflexivity. Qed.
  Lemma dn_gen o : o <> Bad -> ob_negs (enc_obs c e s0 s1 o) = Z.of_nat (s_negs s1 - s_negs s0).
  Proof. destruct o; intros H; try reflexivity. congruence. Qed.
  Lemma negs_test o : s_negs s1 = s_negs s0 -> (0 <? ob_negs (enc_obs c e s0 s1 o))%Z = false.
  Proof.
    intros H. destruct o; try reflexivity;
    (rewrite dn_gen by congruence; rewrite H, Nat.sub_diag; reflexivity).
  Qed.
End Dec.

Lemma assoc_cons {T} (l : list (nat * T)) k v k' :
  assoc ((k, v) :: l) k' = if Nat.eqb k' k then Some v else assoc l k'.
Proof. reflexivity. Qed.
Lemma assoc_unassoc {T} (l : list (nat * T)) k k' :
  assoc (unassoc l k) k' = if Nat.eqb k' k then None else assoc l k'.
Proof.
  induction l as [|[a v] l IH]; cbn [unassoc filter assoc fst].
  - destruct (Nat.eqb k' k); reflexivity.
  - destruct (Nat.eqb a k) eqn:E; cbn [negb].
    + apply Nat.eqb_eq in E; subst a. fold (unassoc l k). rewrite IH.
      destruct (Nat.eqb k' k); reflexivity.
    + fold (unassoc l k). cbn [assoc]. rewrite IH.
      destruct (Nat.eqb k' a) eqn:E2; [|reflexivity].
      apply Nat.eqb_eq in E2; subst a. rewrite E. reflexivity.
Qed.

Lemma idx_set s tid t : s_index (thr_set s tid t) = s_index s. Proof. reflexivity. Qed.
Lemma idx_rm s tid : s_index (thr_rm s tid) = s_index s. Proof. reflexivity. Qed.

Definition kcov (w : world) (up : list (nat * nat)) (k : key) : Prop :=
  if c_hier (w_cfg w) || c_inst_keys (w_cfg w)
  then forall a, snd k = S a -> In (fst k, a) up
  else exists i, In (fst k, i) up.
Definition icov (w : world) (up : list (nat * nat)) (s : state) : Prop :=
  forall k l, In (k, l) (s_index s) -> kcov w up k.

Lemma kcov_mono w up up' k : (forall x, In x up -> In x up') -> kcov w up k -> kcov w up' k.
Proof.
  unfold kcov. intros Hs. destruct (c_hier (w_cfg w) || c_inst_keys (w_cfg w)).
  - intros H a Ha. auto.
  - intros [i Hi]. exists i. auto.
Qed.
Lemma icov_mono w up up' s : (forall x, In x up -> In x up') -> icov w up s -> icov w up' s.
Proof. intros Hs H k l Hin. eapply kcov_mono; eauto. Qed.
Lemma visible_mono w up up' o i :
  (forall x, In x up -> In x up') -> visible w up o i = true -> visible w up' o i = true.
Proof.
  unfold visible. intros Hs H. apply existsb_exists in H. destruct H as [x [H1 H2]].
  apply existsb_exists. exists x. split; auto.
Qed.

Lemma kcov_canonical w up o : c_hier (w_cfg w) = true -> kcov w up (canonical_key o).
Proof. unfold kcov. intros ->. cbn. intros a Ha. discriminate. Qed.

Lemma kcov_visible w up o i k :
  In k (lookup_keys w o i) -> kcov w up k -> visible w up o i = true.
Proof.
  unfold lookup_keys, kcov, visible, flat_key. intros Hin Hc.
  destruct (c_hier (w_cfg w)) eqn:Eh; cbn [orb] in Hc.
  - apply in_map_iff in Hin. destruct Hin as [a [<- Ha]]. cbn [fst snd] in Hc.
    apply existsb_exists. exists (o, a). split; [apply Hc; reflexivity|].
    rewrite Nat.eqb_refl. cbn [andb]. apply existsb_exists. exists a. split; [exact Ha|apply Nat.eqb_refl].
  - destruct Hin as [<-|[]]. destruct (c_inst_keys (w_cfg w)) eqn:Ei; cbn [fst snd] in Hc.
    + apply existsb_exists. exists (o, i). split; [apply Hc; reflexivity|].
      rewrite !Nat.eqb_refl. reflexivity.
    + destruct Hc as [i' Hi']. apply existsb_exists. exists (o, i'). split; [exact Hi'|].
      rewrite Nat.eqb_refl. reflexivity.
Qed.

Lemma kcov_flat_key w up o i : c_hier (w_cfg w) = false -> In (o, i) up -> kcov w up (flat_key (w_cfg w) o i).
Proof.
  unfold kcov, flat_key. intros -> Hin. cbn [orb]. destruct (c_inst_keys (w_cfg w)); cbn [fst snd].
  - intros a Ha. injection Ha as <-. exact Hin.
  - exists i. exact Hin.
Qed.
Lemma kcov_inst w up o i : c_hier (w_cfg w) = true -> In (o, i) up -> kcov w up (o, S i).
Proof. unfold kcov. intros -> Hin. cbn. intros a Ha. injection Ha as <-. exact Hin. Qed.
Lemma kcov_finalize_keys w up o i k :
  In (o, i) up -> In k (finalize_keys w o i) -> kcov w up k.
Proof.
  unfold finalize_keys. intros Hin Hk. destruct (c_hier (w_cfg w)) eqn:Eh.
  - destruct Hk as [<-|[<-|[]]]; [apply kcov_canonical; exact Eh|apply kcov_inst; assumption].
  - destruct Hk as [<-|[]]. apply kcov_flat_key; assumption.
Qed.

Lemma icov_get w up s k l : icov w up s -> index_get s k = Some l -> kcov w up k.
Proof. intros H G. apply index_get_some in G. destruct G as [G _]. eapply H; eauto. Qed.
Lemma icov_ls_visible w up s o i k l :
  icov w up s -> least_specific s (lookup_keys w o i) = Some (k, l) -> visible w up o i = true /\ kcov w up k.
Proof.
  intros H L. apply least_specific_some in L. destruct L as [L1 L2].
  assert (kcov w up k) by (eapply icov_get; eauto). split; [eapply kcov_visible; eauto|assumption].
Qed.

(** sub-operations that touch neither the index nor the threads *)
Definition same (s s' : state) : Prop := s_index s' = s_index s /\ s_threads s' = s_threads s.
Lemma same_refl s : same s s. Proof. split; reflexivity. Qed.
Lemma same_trans a b c : same a b -> same b c -> same a c.
Proof. intros [A1 A2] [B1 B2]. split; congruence. Qed.
#[export] Hint Resolve same_refl : core.

Lemma frame_same s s' : frame_tin s s' -> same s s'.
Proof. intros (T & X & _). split; assumption. Qed.
Lemma same_pin s u : same s (pin s u). Proof. apply frame_same, frame_pin. Qed.
Lemma same_unpin c s u : same s (unpin c s u). Proof. apply frame_same, frame_unpin. Qed.
Lemma same_write_block s u off d : same s (write_block s u off d).
Proof. apply frame_same, frame_write_block. Qed.
Lemma ocn_put_spec c s size r s' : ocn_put c s size = (r, s') -> same s s' /\ err_nz r.
Proof. intros H. apply ocn_put_frame in H. split; [apply frame_same|]; apply H. Qed.
Lemma finalize_spec c s wr ok r s' : finalize c s wr ok = (r, s') -> same s s' /\ err_nz r.
Proof. intros H. apply finalize_frame in H. split; [apply frame_same|]; apply H. Qed.
Lemma read_validated_spec w s o uid l valid bytes s' :
  read_validated w s o uid l = (valid, bytes, s') ->
  same s s' /\ (c_validate (w_cfg w) = true -> valid = true -> bytes = content w o).
Proof.
  unfold read_validated. destruct (c_validate (w_cfg w)); cbn [andb].
  - destruct (bytes_eqb (read_block s uid (l_off l) (l_size l)) (content w o)) eqn:E; cbn [negb].
    + intros H; injection H as <- <- <-. split; [apply same_refl|]. intros _ _. apply bytes_eqb_eq. exact E.
    + intros H; injection H as <- <- <-. split; [split; reflexivity|]. intros _ E'. discriminate.
  - intros H; injection H as <- <- <-. split; [apply same_refl|]. intros E'. discriminate.
Qed.

(** threads unchanged, new index entries have keys in [P] *)
Definition ext (P : key -> Prop) (s s' : state) : Prop :=
  s_threads s' = s_threads s /\ forall k l, In (k, l) (s_index s') -> In (k, l) (s_index s) \/ P k.

Lemma same_ext P s s' : same s s' -> ext P s s'.
Proof. intros [A B]. split; [exact B|]. intros k l H. left. rewrite <- A. exact H. Qed.
Lemma ext_refl P s : ext P s s. Proof. apply same_ext, same_refl. Qed.
Lemma ext_trans P a b c : ext P a b -> ext P b c -> ext P a c.
Proof.
  intros [A1 A2] [B1 B2]. split; [congruence|]. intros k l H.
  apply B2 in H. destruct H as [H|H]; [apply A2 in H; exact H|right; exact H].
Qed.
Lemma ext_weaken (P Q : key -> Prop) s s' : (forall k, P k -> Q k) -> ext P s s' -> ext Q s s'.
Proof. intros PQ [A B]. split; [exact A|]. intros k l H. apply B in H. destruct H; auto. Qed.
Lemma ext_same_l P a b c : same a b -> ext P b c -> ext P a c.
Proof. intros S E. eapply ext_trans; [apply same_ext; exact S|exact E]. Qed.
Lemma ext_icov w up P s s' :
  ext P s s' -> icov w up s -> (forall k, P k -> kcov w up k) -> icov w up s'.
Proof. intros [A B] I PK k l H. apply B in H. destruct H as [H|H]; [eapply I; eauto|auto]. Qed.

Lemma same_icov w up s s' : same s s' -> icov w up s -> icov w up s'.
Proof. intros [A B] I k l H. rewrite A in H. eapply I; eauto. Qed.

Lemma ext_index_put s k l : ext (fun k' => k' = k) s (index_put s k l).
Proof.
  split; [reflexivity|]. intros k' l' H. cbn in H. destruct H as [H|H]; [injection H as <- <-; right; reflexivity|left; exact H].
Qed.
Lemma ext_index_put_all ks l : forall s, ext (fun k' => In k' ks) s (index_put_all s ks l).
Proof.
  induction ks as [|k t IH]; intros s; cbn [index_put_all]; [apply ext_refl|].
  eapply ext_trans.
  - eapply ext_weaken; [|apply (ext_index_put s k l)]. intros k' ->. left; reflexivity.
  - eapply ext_weaken; [|apply IH]. intros k' H. right; exact H.
Qed.

Definition is_tget_of (o : nat) (P : key -> Prop) (t : thread) : Prop :=
  exists uid l rf fk, t = TGet o uid l rf fk /\ forall k, In k fk -> P k.

Lemma owr_spec w s o l fkeys r s' :
  open_with_refresh w s o l fkeys = (r, s') ->
  ext (fun k => In k fkeys) s s' /\
  match r with Ok t => is_tget_of o (fun k => In k fkeys) t | Err e => e <> 0%Z end.
Proof.
  unfold open_with_refresh. destruct (block_of_loc s l) as [b|].
  2:{ intros H; injection H as <- <-. split; [apply ext_refl|discriminate]. }
  pose proof (same_pin s (b_uid b)) as S1.
  destruct (needs_refresh s l).
  2:{ intros H; injection H as <- <-. split; [apply same_ext; exact S1|]. do 4 eexists. split; [reflexivity|auto]. }
  destruct (ocn_put (w_cfg w) (pin s (b_uid b)) (l_size l)) as [r2 s2] eqn:E2.
  apply ocn_put_spec in E2. destruct E2 as [S2 N2]. pose proof (same_trans _ _ _ S1 S2) as S2'.
  destruct r2 as [wr|e2].
  2:{ intros H; injection H as <- <-. split; [|exact N2].
      apply same_ext. eapply same_trans; [exact S2'|apply same_unpin]. }
  destruct (lockstep (w_cfg w)).
  { intros H; injection H as <- <-. split; [apply same_ext; exact S2'|]. do 4 eexists. split; [reflexivity|auto]. }
  match goal with |- context [finalize ?c ?x ?wr ?okk] => destruct (finalize c x wr okk) as [r4 s4] eqn:E4;
    pose proof (same_write_block s2 (wr_uid wr) (wr_off wr) (read_block s2 (b_uid b) (l_off l) (l_size l))) as S3 end.
  apply finalize_spec in E4. destruct E4 as [S4 N4].
  pose proof (same_trans _ _ _ S2' (same_trans _ _ _ S3 S4)) as S4'.
  destruct r4 as [nl|e4].
  - intros H; injection H as <- <-. split.
    + eapply ext_same_l; [exact S4'|]. apply ext_index_put_all.
    + do 4 eexists. split; [reflexivity|]. intros k [].
  - intros H; injection H as <- <-. split; [|exact N4].
    apply same_ext. eapply same_trans; [exact S4'|apply same_unpin].
Qed.

Lemma sfc_spec s o k cl s1 :
  sync_from_canonical s o k = Some (cl, s1) -> ext (fun k' => k' = k) s s1.
Proof.
  unfold sync_from_canonical. destruct (index_get s (canonical_key o)); [|discriminate].
  destruct (needs_refresh s l); [discriminate|]. intros H; injection H as <- <-. apply ext_index_put.
Qed.

Lemma get_open_spec w up s o i r s' :
  icov w up s -> get_open w s o i = (r, s') ->
  s_threads s' = s_threads s /\ icov w up s' /\
  match r with
  | Ok t => is_tget_of o (kcov w up) t /\ visible w up o i = true
  | Err e => e <> 0%Z
  end.
Proof.
  intros I. unfold get_open.
  destruct (least_specific s (lookup_keys w o i)) as [[k l]|] eqn:EL.
  2:{ intros H; injection H as <- <-. split; [reflexivity|]. split; [exact I|discriminate]. }
  destruct (icov_ls_visible _ _ _ _ _ _ _ I EL) as [V K].
  assert (FIN : forall s0 l0 fk, icov w up s0 -> s_threads s0 = s_threads s ->
            (forall k', In k' fk -> kcov w up k') ->
            open_with_refresh w s0 o l0 fk = (r, s') ->
            s_threads s' = s_threads s /\ icov w up s' /\
            match r with
            | Ok t => is_tget_of o (kcov w up) t /\ visible w up o i = true
            | Err e => e <> 0%Z
            end).
  { intros s0 l0 fk I0 T0 FK H. apply owr_spec in H. destruct H as [X R].
    split; [destruct X; congruence|]. split; [eapply ext_icov; eauto|].
    destruct r; [|exact R]. split; [|exact V].
    destruct R as (uid & l' & rf & fk' & -> & Hs). do 4 eexists. split; [reflexivity|]. auto. }
  destruct (negb (needs_refresh s l)).
  { apply FIN; auto. intros k' []. }
  destruct (c_hier (w_cfg w)) eqn:Eh.
  - destruct (sync_from_canonical s o k) as [[cl s1]|] eqn:ES.
    + apply sfc_spec in ES. apply FIN.
      * eapply ext_icov; eauto. intros k' ->. exact K.
      * destruct ES; assumption.
      * intros k' [].
    + apply FIN; auto. intros k' [<-|[<-|[]]]; [apply kcov_canonical; exact Eh|exact K].
  - apply FIN; auto. intros k' [<-|[]]. exact K.
Qed.

Lemma get_consume_spec w s o uid l rf fkeys code bytes s' :
  get_consume w s o uid l rf fkeys = (code, bytes, s') ->
  ext (fun k => In k fkeys) s s' /\
  (c_validate (w_cfg w) = true -> code = cOK -> bytes = content w o).
Proof.
  unfold get_consume.
  destruct (read_validated w s o uid l) as [[valid rb] s1] eqn:E1.
  apply read_validated_spec in E1. destruct E1 as [S1 V1].
  assert (TAIL : forall (tc : Z) s2, ext (fun k => In k fkeys) s s2 ->
     (if negb valid then (cInternal, @nil N, unpin (w_cfg w) s2 uid)
      else if Z.eqb tc cOK then (cOK, rb, unpin (w_cfg w) s2 uid) else (tc, [], unpin (w_cfg w) s2 uid))
     = (code, bytes, s') ->
     ext (fun k => In k fkeys) s s' /\
     (c_validate (w_cfg w) = true -> code = cOK -> bytes = content w o)).
  { intros tc s2 X H.
    assert (X' : ext (fun k => In k fkeys) s (unpin (w_cfg w) s2 uid)) by (eapply ext_trans; [exact X|apply same_ext, same_unpin]).
    destruct valid; cbn [negb] in H.
    - destruct (Z.eqb tc cOK) eqn:Etc.
      + injection H as <- <- <-. split; [exact X'|]. intros Hv _. apply V1; auto.
      + injection H as <- <- <-. split; [exact X'|]. intros _ Hc. subst tc. discriminate.
    - injection H as <- <- <-. split; [exact X'|]. intros _ Hc. discriminate. }
  destruct rf as [wr|].
  - match goal with |- context [finalize ?c ?x ?wr ?okk] => destruct (finalize c x wr okk) as [r4 s4] eqn:E4 end.
    apply finalize_spec in E4. destruct E4 as [S4 _].
    assert (S14 : same s s4).
    { eapply same_trans; [exact S1|]. eapply same_trans; [|exact S4].
      destruct valid; [apply same_write_block|apply same_refl]. }
    destruct r4 as [nl|e4].
    + apply TAIL. eapply ext_same_l; [exact S14|apply ext_index_put_all].
    + apply TAIL. apply same_ext. exact S14.
  - apply TAIL. apply same_ext. exact S1.
Qed.

Definition fm_res (w : world) (up : list (nat * nat)) (o i : nat) (r : res bool) : Prop :=
  match r with Ok true => visible w up o i = true | Ok false => True | Err e => e <> 0%Z end.

Lemma fm_refresh_one_spec w up s o i r s' :
  icov w up s -> fm_refresh_one w s o i = (r, s') ->
  s_threads s' = s_threads s /\ icov w up s' /\ fm_res w up o i r.
Proof.
  intros IC. unfold fm_refresh_one.
  destruct (least_specific s (lookup_keys w o i)) as [[k l]|] eqn:EL.
  2:{ intros H; injection H as <- <-. split; [reflexivity|]. split; [exact IC|exact I]. }
  destruct (icov_ls_visible _ _ _ _ _ _ _ IC EL) as [V K].
  destruct (negb (needs_refresh s l)).
  { intros H; injection H as <- <-. split; [reflexivity|]. split; [exact IC|exact V]. }
  assert (FK : forall k', In k' (if c_hier (w_cfg w) then [canonical_key o; k] else [k]) -> kcov w up k').
  { destruct (c_hier (w_cfg w)) eqn:Eh.
    - intros k' [<-|[<-|[]]]; [apply kcov_canonical; exact Eh|exact K].
    - intros k' [<-|[]]. exact K. }
  set (fk := if c_hier (w_cfg w) then [canonical_key o; k] else [k]) in *. clearbody fk.
  destruct (if c_hier (w_cfg w)
            then match sync_from_canonical s o k with Some (_, s1) => Some s1 | None => None end
            else None) as [s1|] eqn:ED.
  { destruct (c_hier (w_cfg w)); [|discriminate].
    destruct (sync_from_canonical s o k) as [[cl s1']|] eqn:ES; [|discriminate]. injection ED as ->.
    apply sfc_spec in ES. intros H; injection H as <- <-. split; [apply ES|]. split; [|exact V].
    eapply ext_icov; eauto. intros k' ->. exact K. }
  clear ED. destruct (block_of_loc s l) as [b|].
  2:{ intros H; injection H as <- <-. split; [reflexivity|]. split; [exact IC|discriminate]. }
  pose proof (same_pin s (b_uid b)) as S0.
  destruct (ocn_put (w_cfg w) (pin s (b_uid b)) (l_size l)) as [r1 s1] eqn:E1.
  apply ocn_put_spec in E1. destruct E1 as [S1 N1]. pose proof (same_trans _ _ _ S0 S1) as S1'.
  destruct r1 as [wr|e1].
  2:{ intros H; injection H as <- <-.
      assert (X : same s (unpin (w_cfg w) s1 (b_uid b))) by (eapply same_trans; [exact S1'|apply same_unpin]).
      split; [apply X|]. split; [eapply same_icov; eauto|exact N1]. }
  destruct (read_validated w s1 o (b_uid b) l) as [[valid rb] s2] eqn:E2.
  apply read_validated_spec in E2. destruct E2 as [S2 _].
  match goal with |- context [finalize ?c ?x ?wr ?okk] => destruct (finalize c x wr okk) as [r4 s4] eqn:E4 end.
  apply finalize_spec in E4. destruct E4 as [S4 N4].
  assert (S14 : same s s4).
  { eapply same_trans; [exact S1'|]. eapply same_trans; [exact S2|]. eapply same_trans; [|exact S4].
    eapply same_trans; [|apply same_unpin]. destruct valid; [apply same_write_block|apply same_refl]. }
  destruct r4 as [nl|e4].
  - intros H; injection H as <- <-.
    assert (X : ext (fun k' => In k' fk) s (index_put_all s4 fk nl)) by (eapply ext_same_l; [exact S14|apply ext_index_put_all]).
    split; [apply X|]. split; [eapply ext_icov; eauto|exact V].
  - intros H; injection H as <- <-. split; [apply S14|]. split; [eapply same_icov; eauto|].
    cbn [fm_res]. destruct valid; [exact N4|discriminate].
Qed.

Definition fm_out (w : world) (up : list (nat * nat)) (todo : list (nat * (nat * nat))) (missing : list nat)
  (m : res (list nat)) : Prop :=
  match m with
  | Ok ml => (forall x, In x missing -> In x ml) /\
             (forall pos o i, In (pos, (o, i)) todo -> In pos ml \/ visible w up o i = true)
  | Err e => e <> 0%Z
  end.

Lemma fm_phase2_spec w up : forall todo s missing m s',
  icov w up s -> fm_phase2 w s todo missing = (m, s') ->
  s_threads s' = s_threads s /\ icov w up s' /\ fm_out w up todo missing m.
Proof.
  induction todo as [|[pos [o i]] t IH]; intros s missing m s' IC; cbn [fm_phase2].
  - intros H; injection H as <- <-. split; [reflexivity|]. split; [exact IC|].
    split; [auto|]. intros pos o i [].
  - destruct (fm_refresh_one w s o i) as [r1 s1] eqn:E1.
    apply (fm_refresh_one_spec w up) in E1; [|exact IC]. destruct E1 as (T1 & I1 & V1).
    destruct r1 as [[|]|e1]; cbn [fm_res] in V1.
    + intros H. apply IH in H; [|exact I1]. destruct H as (T2 & I2 & R2).
      split; [congruence|]. split; [exact I2|]. destruct m as [ml|e]; [|exact R2]. destruct R2 as [A B].
      split; [exact A|]. intros pos' o' i' [X|X]; [injection X as <- <- <-; right; auto|eauto].
    + intros H. apply IH in H; [|exact I1]. destruct H as (T2 & I2 & R2).
      split; [congruence|]. split; [exact I2|]. destruct m as [ml|e]; [|exact R2]. destruct R2 as [A B].
      split; [intros x Hx; apply A, in_or_app; left; exact Hx|].
      intros pos' o' i' [X|X]; [injection X as <- <- <-; left; apply A, in_or_app; right; left; reflexivity|eauto].
    + intros H; injection H as <- <-. split; [exact T1|]. split; [exact I1|exact V1].
Qed.

Lemma find_missing_spec w up s ds m s' :
  icov w up s -> find_missing w s ds = (m, s') ->
  s_threads s' = s_threads s /\ icov w up s' /\
  match m with
  | Ok ml => forall pos o i, In (pos, (o, i)) (enumerate 0 ds) -> In pos ml \/ visible w up o i = true
  | Err e => e <> 0%Z
  end.
Proof.
  intros IC. unfold find_missing. intros H. apply (fm_phase2_spec w up) in H; [|exact IC].
  destruct H as (T & I' & R). split; [exact T|]. split; [exact I'|].
  destruct m as [ml|e]; [|exact R]. destruct R as [A B].
  intros pos o i Hin.
  destruct (least_specific s (lookup_keys w o i)) as [[k l]|] eqn:EL.
  - destruct (icov_ls_visible _ _ _ _ _ _ _ IC EL) as [V K]. right; exact V.
  - left. apply A. apply in_map_iff. exists (pos, (o, i)). split; [reflexivity|].
    apply filter_In. split; [exact Hin|]. rewrite EL. reflexivity.
Qed.

Lemma put_start_spec w s o i r s' :
  put_start w s o i = (r, s') ->
  same s s' /\
  match r with
  | Ok t => (exists wr, t = TPut o i wr []) \/ (t = TPutExisting o i [] /\ c_hier (w_cfg w) = true)
  | Err _ => True
  end.
Proof.
  unfold put_start.
  match goal with |- context [if ?b then (Ok (TPutExisting o i []), s) else _] => destruct b eqn:EX end.
  - intros H; injection H as <- <-. split; [apply same_refl|]. right. split; [reflexivity|].
    destruct (c_hier (w_cfg w)); [reflexivity|discriminate].
  - destruct (ocn_put (w_cfg w) s (osize w o)) as [r1 s1] eqn:E1. apply ocn_put_spec in E1. destruct E1 as [S1 _].
    destruct r1 as [wr|e]; intros H; injection H as <- <-; (split; [exact S1|]); [left; eexists; reflexivity|exact Logic.I].
Qed.

Definition put_thread (w : world) (o i : nat) (t : thread) : Prop :=
  (exists wr acc, t = TPut o i wr acc) \/ ((exists acc, t = TPutExisting o i acc) /\ c_hier (w_cfg w) = true).

Lemma step_putstart w s tid o i s1 out :
  step w s (OPutStart tid o i) = (s1, out) ->
  (out = Bad /\ s1 = s) \/
  (thr_get (s_threads s) tid = None /\
   exists s', same s s' /\
     ((exists e, out = Done e [] /\ s1 = s') \/
      (exists t, out = Parked /\ s1 = thr_set s' tid t /\ put_thread w o i t))).
Proof.
  unfold step. cbn [may_take_refresh_lock is_corrupt andb].
  destruct (thr_get (s_threads s) tid) eqn:ET.
  { intros H; injection H as <- <-. left; split; reflexivity. }
  destruct (put_start w s o i) as [r s'] eqn:EP. apply put_start_spec in EP. destruct EP as [S1 R].
  right. split; [reflexivity|]. exists s'. split; [exact S1|].
  destruct r as [t|e]; injection H as <- <-.
  - right. exists t. split; [reflexivity|]. split; [reflexivity|].
    destruct R as [[wr ->]|[-> Hh]]; [left; eauto|right; eauto].
  - left. eauto.
Qed.

Lemma step_putchunk w s tid data s1 out :
  step w s (OPutChunk tid data) = (s1, out) ->
  match thr_get (s_threads s) tid with
  | Some (TPut o i wr acc) =>
      exists s', same s s' /\
        ((s1 = thr_rm s' tid /\ out = Done cInvalidArgument []) \/
         (exists acc', s1 = thr_set s' tid (TPut o i wr acc') /\ out = Parked))
  | Some (TPutExisting o i acc) =>
      (s1 = thr_rm s tid /\ out = Done cInvalidArgument []) \/
      (exists acc', s1 = thr_set s tid (TPutExisting o i acc') /\ out = Parked)
  | _ => s1 = s /\ out = Bad
  end.
Proof.
  unfold step. cbn [may_take_refresh_lock is_corrupt andb].
  destruct (thr_get (s_threads s) tid) as [t|] eqn:ET; [|intros H; injection H as <- <-; auto].
  destruct t as [o i wr acc|o i acc| | |]; try (intros H; injection H as <- <-; auto).
  - destruct (N.ltb (wr_size wr) (N.of_nat (length acc + length data))); intros H.
    + destruct (finalize (w_cfg w) s wr false) as [r s'] eqn:EF. apply finalize_spec in EF. destruct EF as [S1 _].
      injection H as <- <-. exists s'. split; [exact S1|]. left. auto.
    + injection H as <- <-. eexists. split; [apply same_write_block|]. right.
      eexists. split; reflexivity.
  - destruct (N.ltb (osize w o) (N.of_nat (length acc + length data))); intros H; injection H as <- <-.
    + left; auto.
    + right. eexists. split; reflexivity.
Qed.

Lemma step_putend w s tid err s1 out :
  step w s (OPutEnd tid err) = (s1, out) ->
  match thr_get (s_threads s) tid with
  | Some (TPut o i wr acc) =>
      exists s' code, s1 = thr_rm s' tid /\ out = Done code [] /\
        ext (fun k => code = 0%Z /\ In k (finalize_keys w o i)) s s'
  | Some (TPutExisting o i acc) =>
      exists s' code, s1 = thr_rm s' tid /\ out = Done code [] /\
        ext (fun k => code = 0%Z /\ k = (o, S i)) s s'
  | _ => s1 = s /\ out = Bad
  end.
Proof.
  unfold step. cbn [may_take_refresh_lock is_corrupt andb].
  destruct (thr_get (s_threads s) tid) as [t|] eqn:ET; [|intros H; injection H as <- <-; auto].
  destruct t as [o i wr acc|o i acc| | |]; try (intros H; injection H as <- <-; auto).
  - match goal with |- context [finalize ?c ?x ?wr ?okk] => destruct (finalize c x wr okk) as [r s'] eqn:EF end.
    apply finalize_spec in EF. destruct EF as [S1 _].
    destruct r as [l|e]; intros H; injection H as <- <-.
    + do 2 eexists. split; [reflexivity|]. split; [reflexivity|].
      eapply ext_same_l; [exact S1|]. eapply ext_weaken; [|apply ext_index_put_all].
      intros k Hk. split; [reflexivity|exact Hk].
    + do 2 eexists. split; [reflexivity|]. split; [reflexivity|]. apply same_ext. exact S1.
  - destruct (negb (Z.eqb err 0)).
    { intros H; injection H as <- <-. do 2 eexists. split; [reflexivity|]. split; [reflexivity|apply ext_refl]. }
    destruct (negb (bytes_eqb acc (content w o))).
    { intros H; injection H as <- <-. do 2 eexists. split; [reflexivity|]. split; [reflexivity|apply ext_refl]. }
    destruct (index_get s (canonical_key o)); intros H; injection H as <- <-.
    + do 2 eexists. split; [reflexivity|]. split; [reflexivity|].
      eapply ext_weaken; [|apply ext_index_put]. intros k ->. split; reflexivity.
    + do 2 eexists. split; [reflexivity|]. split; [reflexivity|apply ext_refl].
Qed.

Lemma step_getopen w up s tid o i s1 out :
  icov w up s ->
  step w s (OGetOpen tid o i) = (s1, out) ->
  (out = Bad /\ s1 = s) \/
  (thr_get (s_threads s) tid = None /\
   exists s', s_threads s' = s_threads s /\ icov w up s' /\
     ((exists e, out = Done e [] /\ s1 = s') \/
      (exists t, out = Parked /\ s1 = thr_set s' tid t /\
                 is_tget_of o (kcov w up) t /\ visible w up o i = true))).
Proof.
  intros IC. unfold step. cbn [may_take_refresh_lock is_corrupt andb].
  destruct (thr_get (s_threads s) tid) eqn:ET.
  { intros H; injection H as <- <-. left; split; reflexivity. }
  destruct (get_open w s o i) as [r s'] eqn:EP. apply (get_open_spec w up) in EP; [|exact IC].
  destruct EP as (T1 & I1 & R).
  right. split; [reflexivity|]. exists s'. split; [exact T1|]. split; [exact I1|].
  destruct r as [t|e]; injection H as <- <-.
  - right. exists t. destruct R as [R V]. split; [reflexivity|]. split; [reflexivity|]. split; [exact R|exact V].
  - left. exists e. split; reflexivity.
Qed.

Lemma step_getconsume w s tid s1 out :
  step w s (OGetConsume tid) = (s1, out) ->
  match thr_get (s_threads s) tid with
  | Some (TGet o uid l rf fk) =>
      exists s' code bytes, s1 = thr_rm s' tid /\ out = Done code bytes /\
        ext (fun k => In k fk) s s' /\
        (c_validate (w_cfg w) = true -> code = cOK -> bytes = content w o)
  | _ => s1 = s /\ out = Bad
  end.
Proof.
  unfold step. cbn [may_take_refresh_lock is_corrupt andb].
  destruct (thr_get (s_threads s) tid) as [t|] eqn:ET; [|intros H; injection H as <- <-; auto].
  destruct t as [| |o uid l rf fk| |]; try (intros H; injection H as <- <-; auto).
  destruct (get_consume w s o uid l rf fk) as [[code bytes] s'] eqn:EG.
  apply get_consume_spec in EG. destruct EG as [X V].
  intros H; injection H as <- <-. exists s', code, bytes. auto.
Qed.

Lemma step_findmissing w up s ds s1 out :
  icov w up s ->
  step w s (OFindMissing ds) = (s1, out) ->
  s_threads s1 = s_threads s /\ icov w up s1 /\
  (out = Bad \/
   exists code ml, out = Missing code ml /\
     (code = 0%Z -> forall pos o i, In (pos, (o, i)) (enumerate 0 ds) -> In pos ml \/ visible w up o i = true)).
Proof.
  intros IC. unfold step. cbn [may_take_refresh_lock is_corrupt andb].
  destruct (refresh_lock_held s).
  { intros H; injection H as <- <-. auto. }
  destruct (find_missing w s ds) as [m s'] eqn:EF. apply (find_missing_spec w up) in EF; [|exact IC].
  destruct EF as (T1 & I1 & R).
  destruct m as [ml|e]; intros H; injection H as <- <-; (split; [exact T1|]); (split; [exact I1|]); right.
  - do 2 eexists. split; [reflexivity|]. intros _ pos o i Hin.
    destruct (R pos o i Hin) as [X|X]; [left; apply sort_nat_in; exact X|right; exact X].
  - do 2 eexists. split; [reflexivity|]. intros E. contradiction.
Qed.

Lemma step_corrupt w s r off len s1 out :
  step w s (OCorrupt r off len) = (s1, out) ->
  same s s1 /\ s_negs s1 = s_negs s /\ (out = Bad \/ out = Done cOK []).
Proof.
  unfold step. cbn [may_take_refresh_lock is_corrupt andb].
  destruct (reader_open s).
  { intros H; injection H as <- <-. auto. }
  destruct (dev_get (s_dev s) r); intros H; injection H as <- <-; (split; [|auto]).
  - apply same_refl.
  - split; reflexivity.
Qed.

Lemma flat_get_visible w up s o i l :
  c_hier (w_cfg w) = false -> icov w up s -> index_get s (flat_key (w_cfg w) o i) = Some l ->
  kcov w up (flat_key (w_cfg w) o i) /\ visible w up o i = true.
Proof.
  intros Eh IC G. assert (K : kcov w up (flat_key (w_cfg w) o i)) by (eapply icov_get; eauto).
  split; [exact K|]. eapply kcov_visible; [|exact K]. unfold lookup_keys. rewrite Eh. left; reflexivity.
Qed.

Definition gfc_thread (w : world) (up : list (nat * nat)) (p i : nat) (t : thread) : Prop :=
  (c_hier (w_cfg w) = true /\
   ((exists e, t = TGfcErr e /\ e <> 0%Z) \/ (is_tget_of p (kcov w up) t /\ visible w up p i = true))) \/
  (c_hier (w_cfg w) = false /\
   exists uid pl rf, t = TGfc p i uid pl rf (flat_key (w_cfg w) p i) /\
                     kcov w up (flat_key (w_cfg w) p i) /\ visible w up p i = true).

Lemma step_gfcstart w up s tid p i ch s1 out :
  icov w up s ->
  step w s (OGfcStart tid p i ch) = (s1, out) ->
  (out = Bad /\ s1 = s) \/
  (thr_get (s_threads s) tid = None /\
   exists s', s_threads s' = s_threads s /\ icov w up s' /\
     ((exists code bytes, out = Done code bytes /\ s1 = s' /\ c_hier (w_cfg w) = false /\
         (code = cOK -> visible w up ch i = true /\ (c_validate (w_cfg w) = true -> bytes = content w ch))) \/
      (exists t, out = Parked /\ s1 = thr_set s' tid t /\ gfc_thread w up p i t))).
Proof.
  intros IC. unfold step. cbn [may_take_refresh_lock is_corrupt andb].
  destruct (refresh_lock_held s).
  { intros H; injection H as <- <-. auto. }
  destruct (thr_get (s_threads s) tid) eqn:ET.
  { intros H; injection H as <- <-. auto. }
  destruct (c_hier (w_cfg w)) eqn:Eh.
  - destruct (get_open w s p i) as [r s'] eqn:EP. apply (get_open_spec w up) in EP; [|exact IC].
    destruct EP as (T1 & I1 & R).
    destruct r as [t|e].
    + destruct R as [R V]. pose proof R as R'. destruct R' as (uid & l & rf & fk & -> & FK).
      intros H; injection H as <- <-. right. split; [reflexivity|]. exists s'. split; [exact T1|]. split; [exact I1|].
      right. eexists. split; [reflexivity|]. split; [reflexivity|]. left. split; [exact Eh|]. right. auto.
    + intros H; injection H as <- <-. right. split; [reflexivity|]. exists s'. split; [exact T1|]. split; [exact I1|].
      right. eexists. split; [reflexivity|]. split; [reflexivity|]. left. split; [exact Eh|]. left. eauto.
  - destruct (index_get s (flat_key (w_cfg w) p i)) as [pl|] eqn:EG.
    2:{ intros H; injection H as <- <-. right. split; [reflexivity|]. exists s. split; [reflexivity|]. split; [exact IC|].
        left. do 2 eexists. split; [reflexivity|]. split; [reflexivity|]. split; [reflexivity|]. discriminate. }
    destruct (flat_get_visible _ _ _ _ _ _ Eh IC EG) as [KP VP].
    remember (if needs_refresh s pl then None
              else match index_get s (flat_key (w_cfg w) ch i) with
                   | Some cl => match block_of_loc s cl with Some b => Some (cl, b_uid b) | None => None end
                   | None => None
                   end) as direct eqn:ED.
    symmetry in ED. destruct direct as [[cl uid]|].
    + assert (GC : index_get s (flat_key (w_cfg w) ch i) = Some cl).
      { destruct (needs_refresh s pl); [discriminate|].
        destruct (index_get s (flat_key (w_cfg w) ch i)) as [cl'|]; [|discriminate].
        destruct (block_of_loc s cl'); [|discriminate]. injection ED as <- _. reflexivity. }
      destruct (flat_get_visible _ _ _ _ _ _ Eh IC GC) as [KC VC].
      destruct (get_consume w (pin s uid) ch uid cl None []) as [[code bytes] s2] eqn:EC.
      apply get_consume_spec in EC. destruct EC as [X V].
      assert (X' : ext (fun k => In k []) s s2) by (eapply ext_same_l; [apply same_pin|exact X]).
      intros H; injection H as <- <-. right. split; [reflexivity|]. exists s2. split; [apply X'|].
      split; [eapply ext_icov; [exact X'|exact IC|intros k []]|].
      left. exists code, bytes. split; [reflexivity|]. split; [reflexivity|]. split; [reflexivity|].
      intros Hc. split; [exact VC|]. intros Hv. apply V; assumption.
    + destruct (block_of_loc s pl) as [b|].
      2:{ intros H; injection H as <- <-. auto. }
      pose proof (same_pin s (b_uid b)) as S1.
      destruct (needs_refresh s pl).
      * destruct (ocn_put (w_cfg w) (pin s (b_uid b)) (l_size pl)) as [r2 s2] eqn:E2.
        apply ocn_put_spec in E2. destruct E2 as [S2 N2]. pose proof (same_trans _ _ _ S1 S2) as S2'.
        destruct r2 as [wr|e2].
        -- match goal with |- (thr_set ?s3 _ _, _) = _ -> _ => assert (S3 : same s s3) end.
           { destruct (lockstep (w_cfg w)); [exact S2'|].
             eapply same_trans; [exact S2'|]. eapply same_trans; [apply same_write_block|apply same_unpin]. }
           intros H; injection H as <- <-. right. split; [reflexivity|]. eexists. split; [apply S3|].
           split; [eapply same_icov; eauto|]. right. eexists. split; [reflexivity|]. split; [reflexivity|].
           right. split; [exact Eh|]. do 3 eexists. split; [reflexivity|]. auto.
        -- assert (S3 : same s (unpin (w_cfg w) s2 (b_uid b))) by (eapply same_trans; [exact S2'|apply same_unpin]).
           intros H; injection H as <- <-. right. split; [reflexivity|]. eexists. split; [apply S3|].
           split; [eapply same_icov; eauto|]. left. do 2 eexists. split; [reflexivity|]. split; [reflexivity|].
           split; [reflexivity|]. intros Hc. contradiction.
      * intros H; injection H as <- <-. right. split; [reflexivity|]. eexists. split; [apply S1|].
        split; [eapply same_icov; eauto|]. right. eexists. split; [reflexivity|]. split; [reflexivity|].
        right. split; [exact Eh|]. do 3 eexists. split; [reflexivity|]. auto.
Qed.

Lemma fold_ext {A} (f : state -> A -> state) (K : A -> key) :
  (forall acc x, ext (fun k => k = K x) acc (f acc x)) ->
  forall l s, ext (fun k => exists x, In x l /\ k = K x) s (fold_left f l s).
Proof.
  intros HF. induction l as [|x t IH]; intros s; cbn [fold_left]; [apply ext_refl|].
  eapply ext_trans.
  - eapply ext_weaken; [|apply (HF s x)]. intros k ->. exists x. split; [left; reflexivity|reflexivity].
  - eapply ext_weaken; [|apply IH]. intros k [y [Hy ->]]. exists y. split; [right; exact Hy|reflexivity].
Qed.

Lemma same_finalize_snd c s wr ok : same s (snd (finalize c s wr ok)).
Proof. destruct (finalize c s wr ok) as [r s2] eqn:EF. apply finalize_spec in EF. apply EF. Qed.

Definition slice_keys (w : world) (i : nat) (pk : key) (slices : list (nat * (N * N))) (k : key) : Prop :=
  k = pk \/ exists x, In x slices /\ k = flat_key (w_cfg w) (fst x) i.

Lemma step_gfcslice w s tid slices s1 out :
  step w s (OGfcSlice tid slices) = (s1, out) ->
  match thr_get (s_threads s) tid with
  | Some (TGfcErr e) => s1 = thr_rm s tid /\ out = Done e []
  | Some (TGet o uid l rf fk) =>
      exists s' code bytes, s1 = thr_rm s' tid /\ out = Done code bytes /\
        ext (fun k => In k fk) s s' /\
        (c_validate (w_cfg w) = true -> code = cOK -> bytes = first_slice (content w o) slices)
  | Some (TGfc p i uid pl rf pk) =>
      exists s' code bytes, s1 = thr_rm s' tid /\ out = Done code bytes /\
        ext (fun k => code = 0%Z /\ slice_keys w i pk slices k) s s' /\
        (c_validate (w_cfg w) = true -> code = cOK -> bytes = first_slice (content w p) slices)
  | _ => s1 = s /\ out = Bad
  end.
Proof.
  unfold step. cbn [may_take_refresh_lock is_corrupt andb].
  destruct (thr_get (s_threads s) tid) as [t|] eqn:ET; [|intros H; injection H as <- <-; auto].
  destruct t as [| |o uid l rf fk|p i uid pl rf pk|e]; try (intros H; injection H as <- <-; auto).
  - (* TGet *)
    destruct (get_consume w s o uid l rf fk) as [[code bytes] s'] eqn:EG.
    apply get_consume_spec in EG. destruct EG as [X V].
    destruct (Z.eqb code cOK) eqn:EC; intros H; injection H as <- <-.
    + apply Z.eqb_eq in EC. do 3 eexists. split; [reflexivity|]. split; [reflexivity|]. split; [exact X|].
      intros Hv _. rewrite <- (V Hv EC). reflexivity.
    + do 3 eexists. split; [reflexivity|]. split; [reflexivity|]. split; [exact X|].
      intros _ Hc. subst code. discriminate.
  - (* TGfc *)
    cbv zeta.
    destruct (read_validated w s p uid pl) as [[valid bytes] s1'] eqn:ER.
    apply read_validated_spec in ER. destruct ER as [S1 V].
    assert (S1u : same s (unpin (w_cfg w) s1' uid)) by (eapply same_trans; [exact S1|apply same_unpin]).
    assert (MK : forall ploc s0,
      ext (fun k => exists x, In x slices /\ k = flat_key (w_cfg w) (fst x) i) s0
        (fold_left (fun acc '(cho, (off, len)) =>
                      index_put acc (flat_key (w_cfg w) cho i)
                        {| l_abs := l_abs ploc; l_off := (l_off ploc + off)%N; l_size := len |}) slices s0)).
    { intros ploc s0. apply (fold_ext _ (fun x => flat_key (w_cfg w) (fst x) i)).
      intros acc [cho [off len]]. apply ext_index_put. }
    destruct valid; cbn [negb].
    2:{ intros H; injection H as <- <-. do 3 eexists. split; [reflexivity|]. split; [reflexivity|].
        split; [|intros _ Hc; discriminate]. apply same_ext.
        destruct rf as [wr|]; [|exact S1u]. destruct (lockstep (w_cfg w)); [|exact S1u].
        eapply same_trans; [exact S1u|first [apply same_finalize_snd|apply same_unpin]]. }
    assert (OKC : forall s', ext (fun k => slice_keys w i pk slices k) s s' ->
       exists s'0 code bytes0, thr_rm s' tid = thr_rm s'0 tid /\
         Done cOK (match slices with (_, (off, len)) :: _ => slice bytes (N.to_nat off) (N.to_nat len) | [] => [] end)
           = Done code bytes0 /\
         ext (fun k => code = 0%Z /\ slice_keys w i pk slices k) s s'0 /\
         (c_validate (w_cfg w) = true -> code = cOK -> bytes0 = first_slice (content w p) slices)).
    { intros s' X. do 3 eexists. split; [reflexivity|]. split; [reflexivity|].
      split; [eapply ext_weaken; [|exact X]; intros k Hk; split; [reflexivity|exact Hk]|].
      intros Hv _. rewrite <- (V Hv eq_refl). reflexivity. }
    assert (ERRC : forall s' e, same s s' -> e <> 0%Z ->
       exists s'0 code bytes0, thr_rm s' tid = thr_rm s'0 tid /\ Done e [] = Done code bytes0 /\
         ext (fun k => code = 0%Z /\ slice_keys w i pk slices k) s s'0 /\
         (c_validate (w_cfg w) = true -> code = cOK -> bytes0 = first_slice (content w p) slices)).
    { intros s' e X Ne. do 3 eexists. split; [reflexivity|]. split; [reflexivity|].
      split; [apply same_ext; exact X|]. intros _ Hc. contradiction. }
    destruct rf as [wr|].
    + destruct (lockstep (w_cfg w)).
      * match goal with |- context [finalize ?c ?x ?wr ?okk] => destruct (finalize c x wr okk) as [r s3] eqn:EF end.
        apply finalize_spec in EF. destruct EF as [S3 N3].
        assert (S3' : same s s3).
        { eapply same_trans; [exact S1u|]. eapply same_trans; [apply same_write_block|exact S3]. }
        destruct r as [nl|e]; intros H; injection H as <- <-.
        -- apply OKC. eapply ext_same_l; [exact S3'|]. eapply ext_trans.
           ++ eapply ext_weaken; [|apply ext_index_put]. intros k ->. left; reflexivity.
           ++ eapply ext_weaken; [|apply MK]. intros k Hk. right; exact Hk.
        -- apply ERRC; [exact S3'|exact N3].
      * unfold fin_check. destruct (N.ltb (wr_abs wr) (s_tbr (unpin (w_cfg w) s1' uid)));
          intros H; injection H as <- <-.
        -- apply ERRC; [exact S1u|discriminate].
        -- apply OKC. eapply ext_same_l; [exact S1u|].
           set (nl := {| l_abs := wr_abs wr; l_off := wr_off wr; l_size := wr_size wr |}).
           apply (ext_trans _ _ (index_put (unpin (w_cfg w) s1' uid) pk nl)).
           ++ eapply ext_weaken; [|apply ext_index_put]. intros k ->. left; reflexivity.
           ++ eapply ext_weaken; [|apply (MK nl)]. intros k Hk. right; exact Hk.
    + destruct (index_get (unpin (w_cfg w) s1' uid) pk) as [pl'|]; intros H; injection H as <- <-.
      * apply OKC. eapply ext_same_l; [exact S1u|]. eapply ext_weaken; [|apply MK]. intros k Hk. right; exact Hk.
      * apply OKC. apply same_ext. exact S1u.
Qed.
