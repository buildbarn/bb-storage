(** C01 proofs: the invariants of the local store model.
    Definitions only.

    The invariant is parametric in a list of CLAIMS (byte ranges of blocks
    that parked operations rely on); for a state between two events the
    claims are those of the parked threads ([claims]).  Inside an event the
    running operation holds additional claims, which the lemmas about the
    sub-operations (pin, ocn_put, write_block, finalize, unpin, ...) add and
    remove explicitly. *)
From Coq Require Import List NArith ZArith Bool Arith Lia Permutation.
From BBS Require Import Store.Model Store.Wf.
Import ListNotations.
Open Scope N_scope.

(** ---- byte ranges ---- *)
Definition rdisj (o1 s1 o2 s2 : N) : Prop := o1 + s1 <= o2 \/ o2 + s2 <= o1.
Definition bslice (bytes : list N) (off size : N) : list N := slice bytes (N.to_nat off) (N.to_nat size).

(** ---- block lookup, reduced to what the invariants need ---- *)
Definition live (s : state) : list block := s_blocks s ++ s_zombies s.
(** cursor and region of the block with this uid (listed or zombie) *)
Definition binfo (s : state) (uid : nat) : option (N * nat) :=
  match find_block s uid with Some b => Some (b_cursor b, b_region b) | None => None end.
(** uid of the listed block with this absolute number *)
Definition uid_at (s : state) (abs : N) : option nat :=
  if abs <? s_released s then None
  else match nth_error (s_blocks s) (N.to_nat (abs - s_released s)) with
       | Some b => Some (b_uid b) | None => None end.
Definition abs_end (s : state) : N := s_released s + N.of_nat (length (s_blocks s)).

(** ---- claims ---- *)
Inductive claim : Type :=
| CW (wr : writer) (acc : list N)   (* pinned allocation being written; [acc] = bytes written so far (a prefix) *)
| CR (uid : nat) (l : loc) (o : nat) (* pinned range holding the content of object [o] *)
| CU (wr : writer) (o : nat).        (* unpinned, completely written allocation (foreground refresh of a flat composite read) *)

Definition c_uid (c : claim) : nat :=
  match c with CW wr _ => wr_uid wr | CR u _ _ => u | CU wr _ => wr_uid wr end.
Definition c_off (c : claim) : N :=
  match c with CW wr _ => wr_off wr | CR _ l _ => l_off l | CU wr _ => wr_off wr end.
Definition c_size (c : claim) : N :=
  match c with CW wr _ => wr_size wr | CR _ l _ => l_size l | CU wr _ => wr_size wr end.
Definition c_isw (c : claim) : bool := match c with CW _ _ => true | _ => false end.
(** number of block references a claim holds on [uid] *)
Definition cref (uid : nat) (c : claim) : nat :=
  match c with
  | CW wr _ => if Nat.eqb (wr_uid wr) uid then 1%nat else 0%nat
  | CR u _ _ => if Nat.eqb u uid then 1%nat else 0%nat
  | CU _ _ => 0%nat
  end.
Definition nrefs (uid : nat) (cl : list claim) : nat := list_sum (map (cref uid) cl).

(** two claims on the same block of which at least one is a writer are disjoint (ordered) *)
Definition cdisj (c1 c2 : claim) : Prop :=
  c_isw c1 || c_isw c2 = true -> c_uid c1 = c_uid c2 -> rdisj (c_off c1) (c_size c1) (c_off c2) (c_size c2).

Fixpoint pairwise {T} (R : T -> T -> Prop) (l : list T) : Prop :=
  match l with
  | [] => True
  | x :: t => (forall y, In y t -> R x y) /\ pairwise R t
  end.

Definition refresh_claims (c : config) (refresh : option writer) (o : nat) (fg : bool) : list claim :=
  match refresh with
  | None => []
  | Some wr => if fg then [CU wr o] else [CW wr []]
  end.

Definition claims_of_thread (c : config) (t : thread) : list claim :=
  match t with
  | TPut o i wr acc => [CW wr acc]
  | TPutExisting _ _ _ => []
  | TGet o uid l refresh _ => CR uid l o :: refresh_claims c refresh o false
  | TGfc p i uid pl refresh _ => CR uid pl p :: refresh_claims c refresh p (negb (lockstep c))
  | TGfcErr _ => []
  end.
Definition claims_of_threads (c : config) (ts : list (nat * thread)) : list claim :=
  flat_map (fun e => claims_of_thread c (snd e)) ts.
Definition claims (c : config) (s : state) : list claim := claims_of_threads c (s_threads s).

(** ---- allocator / counter invariant (no claims) ---- *)
Record AInv (c : config) (s : state) : Prop := {
  a_len : length (s_blocks s) = (s_old s + s_cur s + s_new s)%nat;
  a_rel : s_released s <= s_tbr s /\ s_tbr s <= abs_end s;
  a_uid_nd : NoDup (map b_uid (live s));
  a_uid_lt : forall b, In b (live s) -> (b_uid b < s_next_uid s)%nat;
  a_reg_nd : NoDup (map b_region (live s) ++ s_free s);
  a_reg_lt : in_memory c = true -> forall b, In b (live s) -> (b_region b < s_next_region s)%nat;
  a_free_im : in_memory c = true -> s_free s = [];
  a_cur : forall b, In b (live s) -> b_cursor b <= c_bs c;
  a_dev_live : forall b, In b (live s) -> length (dev_get (s_dev s) (b_region b)) = N.to_nat (c_bs c);
  a_dev_free : forall r, In r (s_free s) ->
               dev_get (s_dev s) r = [] \/ length (dev_get (s_dev s) r) = N.to_nat (c_bs c);
  a_idx : forall k l, In (k, l) (s_index s) -> l_abs l < abs_end s;
}.

(** ---- use counts: a lower bound suffices for safety ---- *)
Record UInv (cl : list claim) (s : state) : Prop := {
  u_blocks : forall b, In b (s_blocks s) -> (1 + nrefs (b_uid b) cl <= b_use b)%nat;
  u_zombies : forall z, In z (s_zombies s) -> (nrefs (b_uid z) cl <= b_use z)%nat;
}.

(** ---- claims and data ---- *)
Definition cw_ok (s : state) (wr : writer) (acc : list N) : Prop :=
  exists cur reg,
    binfo s (wr_uid wr) = Some (cur, reg) /\
    wr_off wr + wr_size wr <= cur /\
    N.of_nat (length acc) <= wr_size wr /\
    bslice (dev_get (s_dev s) reg) (wr_off wr) (N.of_nat (length acc)) = acc /\
    wr_abs wr < abs_end s /\
    (s_released s <= wr_abs wr -> uid_at s (wr_abs wr) = Some (wr_uid wr)).

Definition cr_ok (w : world) (s : state) (uid : nat) (l : loc) (o : nat) : Prop :=
  exists cur reg,
    binfo s uid = Some (cur, reg) /\
    l_off l + l_size l <= cur /\
    bslice (dev_get (s_dev s) reg) (l_off l) (l_size l) = content w o.

Definition cu_ok (w : world) (s : state) (wr : writer) (o : nat) : Prop :=
  (wr_uid wr < s_next_uid s)%nat /\
  wr_abs wr < abs_end s /\
  (forall cur reg, binfo s (wr_uid wr) = Some (cur, reg) -> wr_off wr + wr_size wr <= cur) /\
  (s_tbr s <= wr_abs wr ->
   exists cur reg, uid_at s (wr_abs wr) = Some (wr_uid wr) /\ binfo s (wr_uid wr) = Some (cur, reg) /\
                   bslice (dev_get (s_dev s) reg) (wr_off wr) (wr_size wr) = content w o).

Definition claim_ok (w : world) (s : state) (c : claim) : Prop :=
  match c with
  | CW wr acc => cw_ok s wr acc
  | CR uid l o => cr_ok w s uid l o
  | CU wr o => cu_ok w s wr o
  end.

(** a valid index entry: its block is listed, the range lies below the cursor and holds the object's content *)
Definition idx_ok (w : world) (s : state) (k : key) (l : loc) : Prop :=
  exists uid cur reg,
    uid_at s (l_abs l) = Some uid /\ binfo s uid = Some (cur, reg) /\
    l_off l + l_size l <= cur /\
    bslice (dev_get (s_dev s) reg) (l_off l) (l_size l) = content w (fst k).

Record CInv (w : world) (cl : list claim) (s : state) : Prop := {
  c_claims : forall c, In c cl -> claim_ok w s c;
  c_idx : forall k l, In (k, l) (s_index s) -> loc_valid s l = true -> idx_ok w s k l;
  c_sep : pairwise cdisj cl;
  c_sep_idx : forall wr acc k l, In (CW wr acc) cl -> In (k, l) (s_index s) -> loc_valid s l = true ->
              uid_at s (l_abs l) = Some (wr_uid wr) ->
              rdisj (wr_off wr) (wr_size wr) (l_off l) (l_size l);
}.

(** everything, for an arbitrary claim list *)
Record DInv (w : world) (cl : list claim) (s : state) : Prop := {
  d_a : AInv (w_cfg w) s;
  d_u : UInv cl s;
  d_c : CInv w cl s;
}.

(** ---- threads ---- *)
Definition refresh_ok (refresh : option writer) (l : loc) : Prop :=
  match refresh with Some wr => wr_size wr = l_size l | None => True end.
Definition thread_ok (w : world) (t : thread) : Prop :=
  match t with
  | TPut o i wr acc => wr_size wr = osize w o
  | TPutExisting _ _ _ => True
  | TGet o uid l refresh fkeys => l_size l = osize w o /\ refresh_ok refresh l /\ (forall k, In k fkeys -> fst k = o)
  | TGfc p i uid pl refresh pk => l_size pl = osize w p /\ refresh_ok refresh pl /\ pk = flat_key (w_cfg w) p i
  | TGfcErr _ => True
  end.

(** the invariant of states between events (no corruption so far) *)
Record SInv (w : world) (s : state) : Prop := {
  s_d : DInv w (claims (w_cfg w) s) s;
  s_tids : NoDup (map fst (s_threads s));
  s_thr : forall tid t, In (tid, t) (s_threads s) -> thread_ok w t;
}.

(** ---- what the data invariant yields for one event ---- *)
Definition slices_ok (w : world) (p : nat) (slices : list (nat * (N * N))) : Prop :=
  forall cho off len, In (cho, (off, len)) slices ->
    content w cho = slice (content w p) (N.to_nat off) (N.to_nat len) /\
    (N.to_nat off + N.to_nat len <= length (content w p))%nat.

(** the slices handed to a parked composite read are slices of ITS parent *)
Definition step_wf (w : world) (s : state) (e : op) : Prop :=
  match e with
  | OGfcSlice tid slices =>
      match thr_get (s_threads s) tid with
      | Some (TGfc p _ _ _ _ _) => slices_ok w p slices
      | _ => True
      end
  | _ => True
  end.

Definition first_slice (bytes : list N) (slices : list (nat * (N * N))) : list N :=
  match slices with
  | (_, (off, len)) :: _ => slice bytes (N.to_nat off) (N.to_nat len)
  | [] => []
  end.

(** no negative verdict, and every successful read returns the content of
    the object the parked thread / the event names *)
Definition read_ok (w : world) (s : state) (e : op) (s1 : state) (o : out) : Prop :=
  s_negs s1 = s_negs s /\
  match e, o with
  | OGetConsume tid, Done code bytes =>
      code = cOK ->
      match thr_get (s_threads s) tid with
      | Some (TGet ob _ _ _ _) => bytes = content w ob
      | _ => True
      end
  | OGfcStart _ _ _ ch, Done code bytes => code = cOK -> bytes = content w ch
  | OGfcSlice tid slices, Done code bytes =>
      code = cOK ->
      match thr_get (s_threads s) tid with
      | Some (TGfc p _ _ _ _ _) => bytes = first_slice (content w p) slices
      | Some (TGet p _ _ _ _) => bytes = first_slice (content w p) slices
      | _ => True
      end
  | _, _ => True
  end.
