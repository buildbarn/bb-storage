(** C10 — hierarchical CAS: the set of lookup keys (object, instance) that
    have a stored index entry only grows through successful uploads under
    that very instance name.  Step invariant of the store model. *)
From Coq Require Import List NArith ZArith Bool Arith Lia ZifyN ZifyNat ZifyBool.
From BBS Require Import Store.Model Store.Basics Store.P08Frame Store.P08Step Store.P08Quarantine.
Import ListNotations.
Open Scope N_scope.

Definition has_entry (s : state) (k : key) : Prop := exists l, In (k, l) (s_index s).
(** a key that may be (re)written by refresh / sync: the canonical key, or a
    lookup key that already has an entry *)
Definition lookup_ok (s : state) (k : key) : Prop := snd k = 0%nat \/ has_entry s k.

Definition thread_ok (s : state) (t : thread) : Prop :=
  match t with
  | TPut _ _ wr _ => wr_abs wr < hiM s
  | TPutExisting _ _ _ => True
  | TGet _ _ _ _ fk => Forall (lookup_ok s) fk
  | TGfc _ _ _ _ _ _ => False               (* flat composite reads do not occur in hierarchical stores *)
  | TGfcErr e => e <> 0%Z
  end.
Definition hinv (s : state) : Prop := forall tid t, In (tid, t) (s_threads s) -> thread_ok s t.

Lemma has_entry_ext s s' k : (exists new, s_index s' = new ++ s_index s) -> has_entry s k -> has_entry s' k.
Proof. intros [nw E] [l H]. exists l. rewrite E. apply in_or_app. right. assumption. Qed.
Lemma lookup_ok_ext s s' k : (exists new, s_index s' = new ++ s_index s) -> lookup_ok s k -> lookup_ok s' k.
Proof. intros E [H|H]; [left; assumption|right; eapply has_entry_ext; eassumption]. Qed.
Lemma thread_ok_ext s s' t :
  (exists new, s_index s' = new ++ s_index s) -> hiM s <= hiM s' -> thread_ok s t -> thread_ok s' t.
Proof.
  intros E Hh. destruct t; cbn; auto; [intros H; exact (N.lt_le_trans _ _ _ H Hh)|].
  intros H. eapply Forall_impl; [|exact H]. intros k. apply lookup_ok_ext, E.
Qed.

(** "no widening" frame: threads untouched, index grows only at allowed keys *)
Record nwf (s s' : state) : Prop := {
  nw_thr : s_threads s' = s_threads s;
  nw_ext : exists new, s_index s' = new ++ s_index s;
  nw_keys : forall k, has_entry s' k -> lookup_ok s k;
  nw_hi : hiM s <= hiM s';
}.

Lemma nwf_refl s : nwf s s.
Proof. constructor; [reflexivity|exists []; reflexivity|intros k H; right; exact H|apply N.le_refl]. Qed.
Lemma nwf_afr_step s s1 s2 : afr s1 s2 -> nwf s s1 -> nwf s s2.
Proof.
  intros [] [T [nw E] K H]. constructor.
  - congruence.
  - exists nw. congruence.
  - intros k [l Hl]. apply K. exists l. congruence.
  - eapply N.le_trans; eassumption.
Qed.
Lemma nwf_xfr_step s s1 s2 : xfr s1 s2 -> nwf s s1 -> nwf s s2.
Proof. intros H. apply nwf_afr_step, xfr_afr, H. Qed.
Lemma nwf_pin s s1 u : nwf s s1 -> nwf s (pin s1 u).
Proof. apply nwf_xfr_step, pin_xfr. Qed.
Lemma nwf_unpin s s1 c u : nwf s s1 -> nwf s (unpin c s1 u).
Proof. apply nwf_xfr_step, unpin_xfr. Qed.
Lemma nwf_write_block s s1 u off d : nwf s s1 -> nwf s (write_block s1 u off d).
Proof. apply nwf_xfr_step, write_block_xfr. Qed.
Lemma nwf_finalize s s1 c wr ok : nwf s s1 -> nwf s (snd (finalize c s1 wr ok)).
Proof. rewrite finalize_state. apply nwf_unpin. Qed.
Lemma nwf_index_put s s1 k l : lookup_ok s k -> nwf s s1 -> nwf s (index_put s1 k l).
Proof.
  intros Hk [T [nw E] K H]. constructor; unfold hiM in *; cbn; try assumption.
  - exists ((k, l) :: nw). rewrite E. reflexivity.
  - intros k' [l' [Hl|Hl]]; [inversion Hl; subst; assumption|apply K; exists l'; assumption].
Qed.
Lemma nwf_index_put_all s ks l : Forall (lookup_ok s) ks -> forall s1, nwf s s1 -> nwf s (index_put_all s1 ks l).
Proof.
  induction 1 as [|k t Hk Ht IH]; intros s1 H; cbn [index_put_all]; [assumption|].
  apply IH, nwf_index_put; assumption.
Qed.
Lemma nwf_dfr_step l s s1 s2 : dfr l s1 s2 -> nwf s s1 -> nwf s s2.
Proof.
  intros [] [T [nw E] K H]. constructor.
  - congruence.
  - exists nw. congruence.
  - intros k [l' Hl]. apply K. exists l'. congruence.
  - unfold hiM in *. rewrite df_rel, df_blocks. assumption.
Qed.
Lemma nwf_trans a b c : nwf a b -> nwf b c -> nwf a c.
Proof.
  intros [T1 [n1 E1] K1 H1] [T2 [n2 E2] K2 H2]. constructor.
  - congruence.
  - exists (n2 ++ n1). rewrite E2, E1, app_assoc. reflexivity.
  - intros k Hk. apply K2 in Hk as [Hk|Hk]; [left; assumption|apply K1, Hk].
  - exact (N.le_trans _ _ _ H1 H2).
Qed.

Create HintDb nwf.
#[export] Hint Resolve nwf_refl nwf_pin nwf_unpin nwf_write_block nwf_finalize nwf_afr_step nwf_xfr_step
  nwf_index_put nwf_index_put_all nwf_dfr_step : nwf.

Lemma index_get_lookup_ok s k l : index_get s k = Some l -> lookup_ok s k.
Proof. intros H. apply index_get_some in H as [H _]. right. exists l. assumption. Qed.

Lemma open_with_refresh_nwf w s0 s o l fk r s' :
  Forall (lookup_ok s0) fk -> nwf s0 s -> open_with_refresh w s o l fk = (r, s') -> nwf s0 s'.
Proof.
  intros Hfk Hs. unfold open_with_refresh. destruct (block_of_loc s l) as [b|]; [|iinv; assumption].
  destruct (needs_refresh s l); [|iinv; auto with nwf].
  destruct (ocn_put (w_cfg w) (pin s (b_uid b)) (l_size l)) as [[wr|e] s2] eqn:E; apply ocn_put_afr in E.
  - destruct (lockstep (w_cfg w)); [iinv; eauto with nwf|].
    destruct (finalize _ _ wr true) as [[nl|e] s4] eqn:F; apply finalize_xfr in F; iinv; eauto 10 with nwf.
  - iinv; eauto with nwf.
Qed.

Lemma hier_lookup_keys w o i : c_hier (w_cfg w) = true ->
  lookup_keys w o i = map (fun a => (o, S a)) (ancestors w i).
Proof. unfold lookup_keys. intros ->. reflexivity. Qed.

Lemma get_open_nwf w s o i r s' : get_open w s o i = (r, s') ->
  nwf s s' /\ match r with
              | Ok t => exists uid l rf fk, t = TGet o uid l rf fk /\ Forall (lookup_ok s) fk
              | Err e => e <> 0%Z /\ (e = cNotFound -> least_specific s (lookup_keys w o i) = None)
              end.
Proof.
  intros H. apply get_open_via in H.
  destruct (least_specific s (lookup_keys w o i)) as [[k l]|] eqn:L.
  2:{ destruct H as [-> ->]. split; [apply nwf_refl|split; [discriminate|reflexivity]]. }
  apply least_specific_some in L as [_ Hk]. apply index_get_lookup_ok in Hk.
  destruct H as (s1 & l1 & fk & H & Hs1 & _ & Hfk).
  assert (Forall (lookup_ok s) fk) as Hfk'.
  { eapply Forall_impl; [|exact Hfk]. intros k' [-> | ->]; [left; reflexivity|assumption]. }
  assert (nwf s s1) as N1 by (destruct Hs1 as [->|[cl ->]]; auto with nwf).
  split; [eapply open_with_refresh_nwf; eassumption|]. destruct r as [t|e].
  - apply open_with_refresh_ok in H as (uid & rf & fk' & -> & [-> | ->] & _);
      eexists uid, l1, rf, _; (split; [reflexivity|]); [assumption|constructor].
  - apply open_with_refresh_err in H as [H1 H2]. split; [assumption|]. intros ->. contradiction.
Qed.

Lemma get_consume_nwf w s o uid l refresh fk code bytes s' :
  Forall (lookup_ok s) fk -> get_consume w s o uid l refresh fk = (code, bytes, s') -> nwf s s'.
Proof.
  intros Hfk. unfold get_consume. destruct (read_validated w s o uid l) as [[valid b] s1] eqn:R.
  destruct valid.
  - apply read_validated_true in R; subst s1.
    destruct refresh as [wr|].
    + destruct (finalize _ _ wr true) as [[nl|e] s2] eqn:F; apply finalize_xfr in F;
        cbn [negb]; dm; iinv; eauto 10 with nwf.
    + cbn [negb]. dm; iinv; eauto with nwf.
  - apply read_validated_false_dfr in R.
    destruct refresh as [wr|].
    + destruct (finalize _ s1 wr false) as [[nl|e] s2] eqn:F.
      { apply finalize_ok in F as [F _]. discriminate. }
      apply finalize_xfr in F. cbn [negb]. iinv. eauto 10 with nwf.
    + cbn [negb]. iinv. eauto with nwf.
Qed.

Lemma fm_refresh_one_nwf w s o i r s' : fm_refresh_one w s o i = (r, s') -> nwf s s'.
Proof.
  unfold fm_refresh_one.
  destruct (least_specific s (lookup_keys w o i)) as [[k l]|] eqn:L; [|iinv; apply nwf_refl].
  apply least_specific_some in L as [Lk Lg]. pose proof (index_get_lookup_ok _ _ _ Lg) as Hk.
  destruct (negb (needs_refresh s l)); [iinv; apply nwf_refl|].
  match goal with |- context [match ?d with Some s1 => (Ok true, s1) | None => _ end] => destruct d as [s1|] eqn:D end.
  { iinv. destruct (c_hier (w_cfg w)); [|discriminate].
    destruct (sync_from_canonical s o k) as [[cl s2]|] eqn:E; [|discriminate]. inv D.
    apply sync_from_canonical_sfr in E as [-> _]. auto with nwf. }
  clear D. destruct (block_of_loc s l) as [b|]; [|iinv; apply nwf_refl].
  destruct (ocn_put (w_cfg w) (pin s (b_uid b)) (l_size l)) as [[wr|e] s1] eqn:E; apply ocn_put_afr in E.
  2:{ iinv. eauto with nwf. }
  assert (Forall (lookup_ok s) (if c_hier (w_cfg w) then [canonical_key o; k] else [k])) as Hfk.
  { destruct (c_hier (w_cfg w)); [constructor; [left; reflexivity|]|]; (constructor; [assumption|constructor]). }
  destruct (read_validated w s1 o (b_uid b) l) as [[valid bytes] s2] eqn:R. destruct valid.
  - apply read_validated_true in R; subst s2.
    destruct (finalize _ _ wr true) as [[nl|e] s3] eqn:F; apply finalize_xfr in F; iinv; eauto 10 with nwf.
  - apply read_validated_false_dfr in R.
    destruct (finalize _ _ wr false) as [[nl|e] s3] eqn:F.
    { apply finalize_ok in F as [F _]. discriminate. }
    apply finalize_xfr in F. iinv. eauto 10 with nwf.
Qed.

Lemma fm_phase2_nwf w : forall todo s missing r s', fm_phase2 w s todo missing = (r, s') -> nwf s s'.
Proof.
  induction todo as [|[pos [o i]] t IH]; intros s missing r s'; cbn [fm_phase2]; [iinv; apply nwf_refl|].
  destruct (fm_refresh_one w s o i) as [[[]|e] s1] eqn:E; apply fm_refresh_one_nwf in E.
  - intros H. apply IH in H. eapply nwf_trans; eassumption.
  - intros H. apply IH in H. eapply nwf_trans; eassumption.
  - iinv. assumption.
Qed.

Lemma put_start_nwf w s o i r s' : put_start w s o i = (r, s') ->
  nwf s s' /\ match r with
              | Ok t => (exists wr, t = TPut o i wr [] /\ wr_abs wr < hiM s') \/ t = TPutExisting o i []
              | Err e => e <> 0%Z
              end.
Proof.
  unfold put_start.
  match goal with |- context [if ?x then (Ok (TPutExisting o i []), s) else _] => destruct x end.
  - iinv. split; [apply nwf_refl|right; reflexivity].
  - destruct (ocn_put (w_cfg w) s (osize w o)) as [[wr|e] s1] eqn:E; pose proof (ocn_put_afr _ _ _ _ _ E) as A;
      iinv; (split; [eauto with nwf|]).
    + left. exists wr. split; [reflexivity|]. eapply ocn_put_wr_abs; eassumption.
    + apply ocn_put_err_code in E. destruct E as [-> | [-> | [-> | ->]]]; discriminate.
Qed.

Lemma hinv_nwf s s1 : hinv s -> nwf s s1 -> hinv s1.
Proof.
  intros Hi [T E K H] tid t Ht. rewrite T in Ht. eapply thread_ok_ext; [exact E|exact H|]. eapply Hi, Ht.
Qed.
Lemma thread_ok_thr s ts t : thread_ok (upd_threads s ts) t <-> thread_ok s t.
Proof. destruct t; cbn; reflexivity. Qed.
Lemma hinv_rm s tid : hinv s -> hinv (thr_rm s tid).
Proof.
  intros Hi tid' t Ht. unfold thr_rm in *. apply thread_ok_thr. cbn in Ht.
  apply thr_del_in in Ht as [Ht _]. eapply Hi, Ht.
Qed.
Lemma hinv_set s tid t : hinv s -> thread_ok s t -> hinv (thr_set s tid t).
Proof.
  intros Hi Hok tid' t' Ht. unfold thr_set in *. apply thread_ok_thr. cbn in Ht.
  destruct Ht as [Ht|Ht]; [inversion Ht; subst; assumption|].
  apply thr_del_in in Ht as [Ht _]. eapply Hi, Ht.
Qed.

(** successful completions of uploads, as seen on the step *)
Definition completed (w : world) (s : state) (e : op) : list (nat * nat) :=
  match e with
  | OPutEnd tid _ =>
      match thr_get (s_threads s) tid, snd (step w s e) with
      | Some (TPut o i _ _), Done c _ => if Z.eqb c 0 then [(o, i)] else []
      | Some (TPutExisting o i _), Done c _ => if Z.eqb c 0 then [(o, i)] else []
      | _, _ => []
      end
  | _ => []
  end.

Lemma completed_spec w s e o i : In (o, i) (completed w s e) <->
  exists tid err b, e = OPutEnd tid err /\ snd (step w s e) = Done cOK b /\
    ((exists wr acc, thr_get (s_threads s) tid = Some (TPut o i wr acc)) \/
     (exists acc, thr_get (s_threads s) tid = Some (TPutExisting o i acc))).
Proof.
  split.
  - destruct e; cbn [completed]; try solve [intros []].
    destruct (thr_get (s_threads s) tid) as [[o' i' wr acc|o' i' acc| | |]|] eqn:Ht; try solve [intros []];
      destruct (snd (step w s (OPutEnd tid err))) as [c b| | |] eqn:Es; try solve [intros []];
      destruct (Z.eqb_spec c 0); try solve [intros []]; subst c; intros [Hx|[]]; inv Hx;
      exists tid, err, b; (split; [reflexivity|split; [reflexivity|eauto]]).
  - intros (tid & err & b & -> & Es & Ht). cbn [completed]. rewrite Es.
    destruct Ht as [(wr & acc & ->)|(acc & ->)]; cbn; left; reflexivity.
Qed.

(** the main step lemma (hierarchical stores): the invariant is preserved,
    the index only grows, and a new lookup key appears only through a
    successful upload under that very instance name *)
Lemma step_hier w s e s' out : c_hier (w_cfg w) = true -> hinv s -> step w s e = (s', out) ->
  hinv s' /\
  (forall k, has_entry s' k -> lookup_ok s k \/ exists o i, k = (o, S i) /\ In (o, i) (completed w s e)).
Proof.
  intros Hh Hi Hstep.
  set (prov := fun s1 : state => forall k, has_entry s1 k ->
                 lookup_ok s k \/ exists o i, k = (o, S i) /\ In (o, i) (completed w s e)).
  change (hinv s' /\ prov s').
  assert (forall s1, nwf s s1 -> hinv s1 /\ prov s1) as Hid.
  { intros s1 N. split; [eapply hinv_nwf; eassumption|]. intros k Hk. left. apply (nw_keys _ _ N), Hk. }
  assert (forall s1 tid, nwf s s1 -> hinv (thr_rm s1 tid) /\ prov (thr_rm s1 tid)) as Hrm.
  { intros s1 tid N. destruct (Hid s1 N) as [H1 H2]. split; [apply hinv_rm, H1|exact H2]. }
  assert (forall s1 tid t, nwf s s1 -> thread_ok s1 t -> hinv (thr_set s1 tid t) /\ prov (thr_set s1 tid t)) as Hset.
  { intros s1 tid t N Ht. destruct (Hid s1 N) as [H1 H2]. split; [apply hinv_set; assumption|exact H2]. }
  pose proof Hstep as Hstep0.
  revert Hstep. unfold step.
  destruct e as [tid ob i|tid data|tid err|tid ob i|tid|ds|tid p i ch|tid slices|rg off len];
    cbn [may_take_refresh_lock is_corrupt andb].
  - (* OPutStart *)
    destruct (thr_get (s_threads s) tid); [iinv; apply Hid, nwf_refl|].
    destruct (put_start w s ob i) as [[t|e] s1] eqn:E; apply put_start_nwf in E as [N Ht]; iinv.
    + apply Hset; [assumption|]. destruct Ht as [(wr & -> & Hw)| ->]; cbn; auto.
    + apply Hid; assumption.
  - (* OPutChunk *)
    destruct (thr_get (s_threads s) tid) as [[o i wr acc|o i acc| | |]|] eqn:Ht; try solve [iinv; apply Hid, nwf_refl].
    + destruct (wr_size wr <? _).
      * destruct (finalize (w_cfg w) s wr false) as [r s1] eqn:F. apply finalize_xfr in F.
        iinv. apply Hrm. eauto with nwf.
      * iinv. apply Hset; [auto with nwf|]. cbn.
        apply thr_get_in, Hi in Ht. cbn in Ht.
        exact (N.lt_le_trans _ _ _ Ht (nw_hi _ _ (nwf_write_block s s (wr_uid wr) (wr_off wr + N.of_nat (length acc)) data (nwf_refl s)))).
    + destruct (osize w o <? _); iinv; [apply Hrm, nwf_refl|apply Hset; [apply nwf_refl|exact I]].
  - (* OPutEnd *)
    destruct (thr_get (s_threads s) tid) as [[o i wr acc|o i acc| | |]|] eqn:Ht; try solve [iinv; apply Hid, nwf_refl].
    + destruct (finalize (w_cfg w) s wr _) as [[l|e] s1] eqn:F; pose proof (finalize_xfr _ _ _ _ _ _ F) as X; iinv.
      2:{ apply Hrm. eauto with nwf. }
      assert (nwf s s1) as N by eauto with nwf.
      split.
      * apply hinv_rm. intros tid' t Hin.
        rewrite (if_threads _ _ (index_put_all_ifr s1 (finalize_keys w o i) l)) in Hin.
        eapply thread_ok_ext; [| |eapply (hinv_nwf s s1 Hi N), Hin].
        -- rewrite index_put_all_index. eexists. reflexivity.
        -- unfold hiM. destruct (index_put_all_ifr s1 (finalize_keys w o i) l) as [_ _ _ -> -> _]. apply N.le_refl.
      * intros k [l' Hl']. cbn [thr_rm upd_threads s_index] in Hl'. rewrite index_put_all_index in Hl'.
        apply in_app_or in Hl' as [Hl'|Hl'].
        -- apply in_rev, in_map_iff in Hl' as (k' & Hk' & Hin). inv Hk'.
           unfold finalize_keys in Hin. rewrite Hh in Hin. destruct Hin as [<-|[<-|[]]]; [left; left; reflexivity|].
           right. exists o, i. split; [reflexivity|]. apply completed_spec.
           exists tid, err, []. rewrite Hstep0. eauto 10.
        -- left. apply (nw_keys _ _ N). exists l'. assumption.
    + destruct (negb (Z.eqb err 0)) eqn:Ee; [iinv; apply Hrm, nwf_refl|].
      destruct (negb (bytes_eqb acc (content w o))); [iinv; apply Hrm, nwf_refl|].
      destruct (index_get s (canonical_key o)) as [l|]; iinv; [|apply Hrm, nwf_refl].
      split.
      * apply hinv_rm. intros tid' t Hin. cbn in Hin.
        eapply thread_ok_ext; [| |eapply Hi, Hin]; [exists [((o, S i), l)]; reflexivity|unfold hiM; cbn; apply N.le_refl].
      * intros k [l' Hl']. cbn in Hl'. destruct Hl' as [Hl'|Hl'].
        -- inv Hl'. right. exists o, i. split; [reflexivity|]. apply completed_spec.
           exists tid, err, []. rewrite Hstep0. eauto 10.
        -- left. right. exists l'. assumption.
  - (* OGetOpen *)
    destruct (thr_get (s_threads s) tid); [iinv; apply Hid, nwf_refl|].
    destruct (get_open w s ob i) as [[t|e] s1] eqn:E; apply get_open_nwf in E as [N Ht]; iinv.
    + apply Hset; [assumption|]. destruct Ht as (uid & l & rf & fk & -> & Hfk). cbn.
      eapply Forall_impl; [|exact Hfk]. intros k. apply lookup_ok_ext, N.
    + apply Hid; assumption.
  - (* OGetConsume *)
    destruct (thr_get (s_threads s) tid) as [[| |o uid l refresh fk| |]|] eqn:Ht; try solve [iinv; apply Hid, nwf_refl].
    destruct (get_consume w s o uid l refresh fk) as [[code bytes] s1] eqn:E.
    apply get_consume_nwf in E; [|apply thr_get_in, Hi in Ht; exact Ht]. iinv. apply Hrm; assumption.
  - (* OFindMissing *)
    destruct (refresh_lock_held s); [iinv; apply Hid, nwf_refl|].
    destruct (find_missing w s ds) as [[m|e] s1] eqn:E; apply fm_phase2_nwf in E; iinv; apply Hid; assumption.
  - (* OGfcStart *)
    destruct (refresh_lock_held s); [iinv; apply Hid, nwf_refl|].
    destruct (thr_get (s_threads s) tid); [iinv; apply Hid, nwf_refl|].
    rewrite Hh.
    destruct (get_open w s p i) as [[t|e] s1] eqn:E; apply get_open_nwf in E as [N Ht].
    + destruct Ht as (uid & l & rf & fk & -> & Hfk). iinv. apply Hset; [assumption|]. cbn.
      eapply Forall_impl; [|exact Hfk]. intros k. apply lookup_ok_ext, N.
    + iinv. apply Hset; [assumption|]. cbn. apply Ht.
  - (* OGfcSlice *)
    destruct (thr_get (s_threads s) tid) as [[| |o uid l refresh fk|p i uid pl refresh pk|code]|] eqn:Ht;
      try solve [iinv; apply Hid, nwf_refl].
    + destruct (get_consume w s o uid l refresh fk) as [[code bytes] s1] eqn:E.
      apply get_consume_nwf in E; [|apply thr_get_in, Hi in Ht; exact Ht]. iinv. apply Hrm; assumption.
    + apply thr_get_in, Hi in Ht. destruct Ht.
    + iinv. apply Hrm, nwf_refl.
  - (* OCorrupt *)
    assert (forall d, nwf s (upd_dev s d)) as Hd.
    { intros d. constructor; unfold hiM; cbn; try reflexivity; try lia. exists []; reflexivity. intros k Hk; right; exact Hk. }
    dm; iinv; apply Hid; auto using nwf_refl.
Qed.

(** shape of one step as far as the thread table and the output are concerned
    (what the monitors' own bookkeeping by thread id has to be related to) *)

#[local] Arguments completed : simpl never.
#[local] Arguments step : simpl never.

Definition op_tid (e : op) : option nat :=
  match e with
  | OPutStart t _ _ | OPutChunk t _ | OPutEnd t _ | OGetOpen t _ _ | OGetConsume t
  | OGfcStart t _ _ _ | OGfcSlice t _ => Some t
  | _ => None
  end.

Definition T (s : state) (tid : nat) : option thread := thr_get (s_threads s) tid.
Definition put_of (t : option thread) : option (nat * nat) :=
  match t with
  | Some (TPut o i _ _) => Some (o, i)
  | Some (TPutExisting o i _) => Some (o, i)
  | _ => None
  end.
Definition is_get (t : option thread) : Prop :=
  match t with Some (TGet _ _ _ _ _) => True | _ => False end.
Definition resolves (w : world) (s : state) (o j : nat) : Prop :=
  exists k l, In k (lookup_keys w o j) /\ index_get s k = Some l.

Definition shape (w : world) (s : state) (e : op) (s' : state) (out : out) : Prop :=
  match out with
  | Bad => s' = s
  | Missing _ _ => s_threads s' = s_threads s /\ exists ds, e = OFindMissing ds
  | Parked =>
      exists tid t s1, op_tid e = Some tid /\ s_threads s1 = s_threads s /\ s' = thr_set s1 tid t /\
        match e with
        | OPutStart _ o i => T s tid = None /\ put_of (Some t) = Some (o, i)
        | OPutChunk _ _ => put_of (T s tid) <> None /\ put_of (Some t) = put_of (T s tid)
        | OGetOpen _ o j => T s tid = None /\ resolves w s o j /\ is_get (Some t)
        | OGfcStart _ p j _ => T s tid = None /\ ((resolves w s p j /\ is_get (Some t)) \/ exists c, t = TGfcErr c)
        | _ => False
        end
  | Done c b =>
      match e with
      | OPutStart _ _ _ | OGetOpen _ _ _ | OCorrupt _ _ _ => s_threads s' = s_threads s
      | OPutChunk tid _ =>
          exists s1, s_threads s1 = s_threads s /\ s' = thr_rm s1 tid /\ put_of (T s tid) <> None /\ c <> 0%Z
      | OPutEnd tid _ =>
          exists s1, s_threads s1 = s_threads s /\ s' = thr_rm s1 tid /\
            exists oi, put_of (T s tid) = Some oi /\ (c = 0%Z -> completed w s e = [oi])
      | OGetConsume tid =>
          exists s1, s_threads s1 = s_threads s /\ s' = thr_rm s1 tid /\ is_get (T s tid)
      | OGfcSlice tid _ =>
          exists s1, s_threads s1 = s_threads s /\ s' = thr_rm s1 tid /\
            (is_get (T s tid) \/ (T s tid = Some (TGfcErr c) /\ c <> 0%Z))
      | _ => False
      end
  end.

Lemma completed_put_end w s tid err s' b oi :
  step w s (OPutEnd tid err) = (s', Done 0%Z b) -> put_of (T s tid) = Some oi ->
  completed w s (OPutEnd tid err) = [oi].
Proof.
  intros Hs Hp. unfold completed. rewrite Hs. cbn [snd]. unfold T in Hp.
  destruct (thr_get (s_threads s) tid) as [[o i wr acc|o i acc| | |]|]; cbn in Hp; inv Hp; reflexivity.
Qed.

Lemma step_shape w s e s' out : c_hier (w_cfg w) = true -> hinv s -> step w s e = (s', out) ->
  shape w s e s' out.
Proof.
  intros Hh Hi Hstep. pose proof Hstep as Hstep0. revert Hstep. unfold step.
  destruct e as [tid ob i|tid data|tid err|tid ob i|tid|ds|tid p i ch|tid slices|rg off len];
    cbn [may_take_refresh_lock is_corrupt andb].
  - (* OPutStart *)
    destruct (thr_get (s_threads s) tid) eqn:Ht; [iinv; reflexivity|].
    destruct (put_start w s ob i) as [[t|e] s1] eqn:E; apply put_start_nwf in E as [[N _ _ _] Hr]; iinv; cbn.
    + exists tid, t, s1. repeat split; try assumption.
      destruct Hr as [(wr & -> & _)| ->]; reflexivity.
    + assumption.
  - (* OPutChunk *)
    destruct (thr_get (s_threads s) tid) as [[o i wr acc|o i acc| | |]|] eqn:Ht; try solve [iinv; reflexivity].
    + destruct (wr_size wr <? _).
      * destruct (finalize (w_cfg w) s wr false) as [r s1] eqn:F. apply finalize_xfr in F as [].
        iinv. cbn. exists s1. unfold T. rewrite Ht. repeat split; try assumption; discriminate.
      * iinv. cbn. eexists tid, _, _. split; [reflexivity|]. split; [|split; [reflexivity|]].
        -- apply (P08Frame.xf_threads _ _ (write_block_xfr _ _ _ _)).
        -- unfold T. rewrite Ht. split; [discriminate|reflexivity].
    + destruct (osize w o <? _); iinv; cbn.
      * exists s. unfold T. rewrite Ht. repeat split; discriminate.
      * eexists tid, _, s. unfold T. rewrite Ht. repeat split; discriminate.
  - (* OPutEnd *)
    assert (forall oi c s1, put_of (T s tid) = Some oi -> s_threads s1 = s_threads s ->
              step w s (OPutEnd tid err) = (thr_rm s1 tid, Done c []) ->
              exists s2, s_threads s2 = s_threads s /\ thr_rm s1 tid = thr_rm s2 tid /\
                exists oi, put_of (T s tid) = Some oi /\ (c = 0%Z -> completed w s (OPutEnd tid err) = [oi])) as Hx.
    { intros oi c s1 Hpo Hs1 Hst. exists s1. split; [assumption|split; [reflexivity|]].
      exists oi. split; [assumption|]. intros ->. eapply completed_put_end; eassumption. }
    unfold T in Hx.
    destruct (thr_get (s_threads s) tid) as [[o i wr acc|o i acc| | |]|] eqn:Ht; try solve [iinv; reflexivity].
    + destruct (finalize (w_cfg w) s wr _) as [[l|e] s1] eqn:F; apply finalize_xfr in F as []; iinv; cbn; unfold T; rewrite Ht;
        (apply (Hx (o, i)); [reflexivity| |assumption]); [|assumption].
      rewrite (if_threads _ _ (index_put_all_ifr s1 (finalize_keys w o i) l)). assumption.
    + destruct (negb (Z.eqb err 0)); [iinv; cbn; unfold T; rewrite Ht; apply (Hx (o, i)); [reflexivity|reflexivity|assumption]|].
      destruct (negb (bytes_eqb acc (content w o))); [iinv; cbn; unfold T; rewrite Ht; apply (Hx (o, i)); [reflexivity|reflexivity|assumption]|].
      destruct (index_get s (canonical_key o)) as [l|]; iinv; cbn; unfold T; rewrite Ht; (apply (Hx (o, i)); [reflexivity|reflexivity|assumption]).
  - (* OGetOpen *)
    destruct (thr_get (s_threads s) tid) eqn:Ht; [iinv; reflexivity|].
    destruct (get_open w s ob i) as [[t|e] s1] eqn:E; pose proof (get_open_nwf _ _ _ _ _ _ E) as [[N _ _ _] _]; iinv; cbn.
    + apply get_open_ok in E as (uid & l & r & fk & -> & (k & l0 & Hk & Hg) & _ & _).
      eexists tid, _, s1. split; [reflexivity|split; [assumption|split; [reflexivity|]]].
      split; [assumption|split; [exists k, l0; auto|exact I]].
    + assumption.
  - (* OGetConsume *)
    destruct (thr_get (s_threads s) tid) as [[| |o uid l refresh fk| |]|] eqn:Ht; try solve [iinv; reflexivity].
    destruct (get_consume w s o uid l refresh fk) as [[code bytes] s1] eqn:E.
    apply get_consume_nwf in E as [N _ _ _]; [|apply thr_get_in, Hi in Ht; exact Ht]. iinv. cbn.
    exists s1. unfold T. rewrite Ht. repeat split; assumption.
  - (* OFindMissing *)
    destruct (refresh_lock_held s); [iinv; reflexivity|].
    destruct (find_missing w s ds) as [[m|e] s1] eqn:E; apply fm_phase2_nwf in E as [N _ _ _]; iinv; cbn; eauto.
  - (* OGfcStart *)
    destruct (refresh_lock_held s); [iinv; reflexivity|].
    destruct (thr_get (s_threads s) tid) eqn:Ht; [iinv; reflexivity|].
    rewrite Hh.
    destruct (get_open w s p i) as [[t|e] s1] eqn:E; pose proof (get_open_nwf _ _ _ _ _ _ E) as [[N _ _ _] _].
    + apply get_open_ok in E as (uid & l & r & fk & -> & (k & l0 & Hk & Hg) & _ & _). iinv. cbn.
      eexists tid, _, s1. split; [reflexivity|split; [assumption|split; [reflexivity|]]].
      split; [assumption|left; split; [exists k, l0; auto|exact I]].
    + iinv. cbn. eexists tid, _, s1. split; [reflexivity|split; [assumption|split; [reflexivity|]]].
      split; [assumption|right; eauto].
  - (* OGfcSlice *)
    destruct (thr_get (s_threads s) tid) as [[| |o uid l refresh fk|p i uid pl refresh pk|code]|] eqn:Ht;
      try solve [iinv; reflexivity].
    + destruct (get_consume w s o uid l refresh fk) as [[code bytes] s1] eqn:E.
      apply get_consume_nwf in E as [N _ _ _]; [|apply thr_get_in, Hi in Ht; exact Ht].
      destruct (Z.eqb code cOK); iinv; cbn; exists s1; unfold T; rewrite Ht; (split; [assumption|split; [reflexivity|left; exact I]]).
    + apply thr_get_in, Hi in Ht. destruct Ht.
    + pose proof (Hi _ _ (thr_get_in _ _ _ Ht)) as Hne. cbn in Hne.
      iinv. cbn. exists s. unfold T. rewrite Ht. split; [reflexivity|split; [reflexivity|right; split; [reflexivity|assumption]]].
  - (* OCorrupt *)
    dm; iinv; reflexivity.
Qed.

Lemma T_set_same s1 tid t : T (thr_set s1 tid t) tid = Some t.
Proof. unfold T. rewrite thr_get_set, Nat.eqb_refl. reflexivity. Qed.
Lemma T_set_other s s1 tid t tid' : s_threads s1 = s_threads s -> tid' <> tid -> T (thr_set s1 tid t) tid' = T s tid'.
Proof. intros E Hne. unfold T. rewrite thr_get_set, E, (proj2 (Nat.eqb_neq tid tid')) by congruence. reflexivity. Qed.
Lemma T_rm_same s1 tid : T (thr_rm s1 tid) tid = None.
Proof. unfold T. rewrite thr_get_rm, Nat.eqb_refl. reflexivity. Qed.
Lemma T_rm_other s s1 tid tid' : s_threads s1 = s_threads s -> tid' <> tid -> T (thr_rm s1 tid) tid' = T s tid'.
Proof. intros E Hne. unfold T. rewrite thr_get_rm, E, (proj2 (Nat.eqb_neq tid tid')) by congruence. reflexivity. Qed.
Lemma T_same s s' tid : s_threads s' = s_threads s -> T s' tid = T s tid.
Proof. unfold T. intros ->. reflexivity. Qed.
