(** C01 proofs, operations part A: index lookups, pin, write_block,
    read_block / read_validated and the thread list, against [DInv]. *)
From Coq Require Import List NArith ZArith Bool Arith Lia ZifyN ZifyNat ZifyBool.
From BBS Require Import Store.Model Store.P01Inv.
From BBS Require Export Store.P01OpsA1.
Import ListNotations.
Open Scope N_scope.

Lemma valid_block_of_loc : forall c s l, AInv c s -> loc_valid s l = true -> exists b, block_of_loc s l = Some b.
Proof.
  intros c s l A H. apply loc_valid_bounds in H. destruct H as [H1 H2].
  destruct (a_rel _ _ A) as [R1 R2]. unfold abs_end in *. unfold block_of_loc.
  destruct (nth_error (s_blocks s) (N.to_nat (l_abs l - s_released s))) as [b|] eqn:E.
  - exists b. reflexivity.
  - apply nth_error_None in E. lia.
Qed.

Lemma DInv_threads : forall w cl s ts, DInv w cl s -> DInv w cl (upd_threads s ts).
Proof. intros w cl s ts. apply DInv_view; [constructor; reflexivity|reflexivity|reflexivity]. Qed.

Lemma read_block_cr : forall w cl s uid l o,
  DInv w cl s -> In (CR uid l o) cl -> read_block s uid (l_off l) (l_size l) = content w o.
Proof.
  intros w cl s uid l o D H.
  pose proof (c_claims _ _ _ (d_c _ _ _ D) _ H) as K. cbn [claim_ok] in K.
  destruct K as (cur & reg & B & L & S).
  apply binfo_in in B. destruct B as (b & F & _ & _ & _ & R).
  unfold read_block. rewrite F, R. exact S.
Qed.

Lemma read_validated_cr : forall w cl s uid l o,
  DInv w cl s -> In (CR uid l o) cl -> read_validated w s o uid l = (true, content w o, s).
Proof.
  intros w cl s uid l o D H. unfold read_validated. cbv zeta.
  rewrite (read_block_cr _ _ _ _ _ _ D H).
  rewrite bytes_eqb_refl.
  cbn [negb]. rewrite andb_false_r. reflexivity.
Qed.

Lemma bslice_length : forall bytes off size,
  (N.to_nat off + N.to_nat size <= length bytes)%nat -> length (bslice bytes off size) = N.to_nat size.
Proof. intros. unfold bslice. apply slice_length. assumption. Qed.

Lemma entry_size : forall w cl s k l,
  DInv w cl s -> In (k, l) (s_index s) -> loc_valid s l = true -> l_size l = osize w (fst k).
Proof.
  intros w cl s k l D Hin Hv.
  destruct (c_idx _ _ _ (d_c _ _ _ D) _ _ Hin Hv) as (uid & cur & reg & UA & B & L & S).
  apply binfo_in in B. destruct B as (b & _ & Hb & _ & Cb & Rb).
  pose proof (a_cur _ _ (d_a _ _ _ D) _ Hb) as H1.
  pose proof (a_dev_live _ _ (d_a _ _ _ D) _ Hb) as H2.
  rewrite Cb in H1. rewrite Rb in H2.
  unfold osize. rewrite <- S, bslice_length by lia. lia.
Qed.

Lemma map_uid_in : forall f u l b', NoDup (map b_uid l) -> In b' (map_uid f u l) ->
  exists b0, In b0 l /\ b' = if Nat.eqb (b_uid b0) u then f b0 else b0.
Proof.
  intros f u l b' ND H. rewrite map_uid_map in H by exact ND. apply in_map_iff in H.
  destruct H as (b0 & E & H0). exists b0. split; [exact H0|symmetry; exact E].
Qed.

Definition inc_use (b : block) : block := set_use b (S (b_use b)).

Lemma pin_view : forall s u, sview s (pin s u).
Proof.
  intros s u. unfold pin. constructor;
    cbn [upd_blocks s_blocks s_zombies s_free s_next_region s_next_uid s_dev s_old s_cur s_new
         s_released s_tbr s_index]; try reflexivity.
  - apply map_uid_view. reflexivity.
  - apply map_uid_view. reflexivity.
Qed.

Lemma CInv_add_CR : forall w cl s uid l o,
  CInv w cl s -> cr_ok w s uid l o ->
  (forall wr acc, In (CW wr acc) cl -> wr_uid wr = uid ->
                  rdisj (wr_off wr) (wr_size wr) (l_off l) (l_size l)) ->
  CInv w (CR uid l o :: cl) s.
Proof.
  intros w cl s uid l o C OK SEP. constructor.
  - intros c [<-|H]; [exact OK|]. apply (c_claims _ _ _ C). exact H.
  - apply (c_idx _ _ _ C).
  - cbn [pairwise]. split; [|apply (c_sep _ _ _ C)].
    intros y Hy. unfold cdisj. cbn [c_isw c_uid c_off c_size orb].
    destruct y as [wr acc|u' l' o'|wr o']; cbn [c_isw c_uid c_off c_size]; try discriminate.
    intros _ E. apply rdisj_sym. apply (SEP wr acc Hy). symmetry. exact E.
  - intros wr acc k0 l0 [H|H]; [discriminate|]. exact (c_sep_idx _ _ _ C wr acc k0 l0 H).
Qed.

Lemma pin_loc_inv : forall w cl s k l b,
  DInv w cl s -> In (k, l) (s_index s) -> loc_valid s l = true -> block_of_loc s l = Some b ->
  DInv w (CR (b_uid b) l (fst k) :: cl) (pin s (b_uid b)).
Proof.
  intros w cl s k l b [A U C] Hin Hv Hb.
  destruct (loc_valid_bounds _ _ Hv) as [V1 V2].
  destruct (a_rel _ _ A) as [R1 R2].
  destruct (block_of_loc_uid_at _ _ _ Hb) as [UA Inb]; [lia|].
  pose proof (a_uid_nd _ _ A) as ND. unfold live in ND. rewrite map_app in ND.
  constructor.
  - eapply AInv_view; [apply pin_view|exact A].
  - assert (Z : ~ In (b_uid b) (map b_uid (s_zombies s))).
    { intro Hz. eapply (NoDup_app_disj _ _ (b_uid b) ND); [apply in_map; exact Inb|exact Hz]. }
    unfold pin. constructor; cbn [upd_blocks s_blocks s_zombies].
    + intros b' H'. apply map_uid_in in H'; [|eapply NoDup_app_l; exact ND].
      destruct H' as (b0 & H0 & E). pose proof (u_blocks _ _ U _ H0) as U0.
      rewrite nrefs_cons. cbn [cref].
      destruct (Nat.eqb (b_uid b0) (b_uid b)) eqn:E0; subst b'.
      * cbn [set_use b_uid b_use]. rewrite Nat.eqb_sym, E0. lia.
      * rewrite Nat.eqb_sym, E0. lia.
    + rewrite map_uid_none by exact Z. intros z Hz.
      pose proof (u_zombies _ _ U _ Hz) as U0. rewrite nrefs_cons. cbn [cref].
      destruct (Nat.eqb (b_uid b) (b_uid z)) eqn:E0.
      * apply Nat.eqb_eq in E0. exfalso. apply Z. rewrite E0. apply in_map. exact Hz.
      * lia.
  - eapply CInv_view; [apply pin_view|].
    apply CInv_add_CR; [exact C| |].
    + destruct (c_idx _ _ _ C _ _ Hin Hv) as (uid & cur & reg & UA' & B & L & S).
      rewrite UA in UA'. inversion UA'; subst uid. exists cur, reg. auto.
    + intros wr acc Hw E. apply (c_sep_idx _ _ _ C wr acc k l Hw Hin Hv). rewrite E. exact UA.
Qed.

Section Write.
  Variable d : list (nat * list N).
  Variable reg : nat.
  Variable woff : N.
  Variable data : list N.
  Let bytes := dev_get d reg.
  Let d' := dev_set d reg (overwrite bytes (N.to_nat woff) data).

  Lemma write_other : forall reg' off' size',
    (reg' = reg -> off' + size' <= woff \/ woff + N.of_nat (length data) <= off') ->
    bslice (dev_get d' reg') off' size' = bslice (dev_get d reg') off' size'.
  Proof.
    intros reg' off' size' H. unfold d'. rewrite dev_get_set.
    destruct (Nat.eqb reg' reg) eqn:E; [|reflexivity].
    apply Nat.eqb_eq in E. subst reg'. unfold bslice, bytes.
    destruct (H eq_refl) as [H1|H1].
    - apply slice_overwrite_before. lia.
    - apply slice_overwrite_after. lia.
  Qed.

  Lemma write_len : forall reg',
    (N.to_nat woff + length data <= length bytes)%nat ->
    length (dev_get d' reg') = length (dev_get d reg').
  Proof.
    intros reg' H. unfold d'. rewrite dev_get_set.
    destruct (Nat.eqb reg' reg) eqn:E; [|reflexivity].
    apply Nat.eqb_eq in E. subst reg'. apply overwrite_length. exact H.
  Qed.
End Write.

Lemma write_inv : forall w cl s wr acc data,
  DInv w (CW wr acc :: cl) s -> N.of_nat (length acc + length data) <= wr_size wr ->
  DInv w (CW wr (acc ++ data) :: cl)
       (write_block s (wr_uid wr) (wr_off wr + N.of_nat (length acc)) data).
Proof.
  intros w cl s wr acc data [A U C] Hsz.
  pose proof (c_claims _ _ _ C (CW wr acc) (or_introl eq_refl)) as K. cbn [claim_ok] in K.
  destruct K as (cur & reg & B & L1 & L2 & S & L3 & L4).
  destruct (binfo_in _ _ _ _ B) as (b & F & Hb & Ub & Cb & Rb).
  unfold write_block. rewrite F, Rb.
  set (woff := wr_off wr + N.of_nat (length acc)).
  pose proof (a_cur _ _ A _ Hb) as H1. rewrite Cb in H1.
  pose proof (a_dev_live _ _ A _ Hb) as H2. rewrite Rb in H2.
  assert (Hfit : (N.to_nat woff + length data <= length (dev_get (s_dev s) reg))%nat)
    by (unfold woff; lia).
  set (d' := dev_set (s_dev s) reg (overwrite (dev_get (s_dev s) reg) (N.to_nat woff) data)).
  (* the written range lies inside the writer's allocation *)
  assert (OTHER : forall u' cur' reg' off' size',
            binfo s u' = Some (cur', reg') ->
            (u' = wr_uid wr -> rdisj (wr_off wr) (wr_size wr) off' size') ->
            bslice (dev_get d' reg') off' size' = bslice (dev_get (s_dev s) reg') off' size').
  { intros u' cur' reg' off' size' B' DJ. apply write_other. intros E. subst reg'.
    assert (E : u' = wr_uid wr) by (eapply binfo_region_inj; eassumption).
    specialize (DJ E). unfold rdisj in DJ. unfold woff. lia. }
  destruct (c_sep _ _ _ C) as [P1 P2].
  constructor.
  - constructor.
    + exact (a_len _ _ A).
    + exact (a_rel _ _ A).
    + exact (a_uid_nd _ _ A).
    + exact (a_uid_lt _ _ A).
    + exact (a_reg_nd _ _ A).
    + exact (a_reg_lt _ _ A).
    + exact (a_free_im _ _ A).
    + exact (a_cur _ _ A).
    + intros b0 H0. change (length (dev_get d' (b_region b0)) = N.to_nat (c_bs (w_cfg w))).
      unfold d'. rewrite write_len by exact Hfit. exact (a_dev_live _ _ A _ H0).
    + intros r Hr. change (dev_get d' r = [] \/ length (dev_get d' r) = N.to_nat (c_bs (w_cfg w))).
      assert (NE : Nat.eqb r reg = false).
      { apply Nat.eqb_neq. intro E. subst r.
        eapply (NoDup_app_disj _ _ reg (a_reg_nd _ _ A)); [|exact Hr].
        rewrite <- Rb. apply in_map. exact Hb. }
      unfold d'. rewrite dev_get_set, NE. exact (a_dev_free _ _ A _ Hr).
    + exact (a_idx _ _ A).
  - destruct U as [U1 U2]. constructor.
    + exact U1.
    + exact U2.
  - constructor.
    + intros c [<-|Hc].
      * cbn [claim_ok]. exists cur, reg. split; [exact B|]. split; [exact L1|].
        split; [rewrite app_length; exact Hsz|]. split; [|split; [exact L3|exact L4]].
        change (bslice (dev_get d' reg) (wr_off wr) (N.of_nat (length (acc ++ data))) = acc ++ data).
        unfold d'. rewrite dev_get_set, Nat.eqb_refl. unfold bslice in *.
        rewrite app_length.
        replace (N.to_nat (N.of_nat (length acc + length data))) with (length acc + length data)%nat by lia.
        replace (N.to_nat woff) with (N.to_nat (wr_off wr) + length acc)%nat by (unfold woff; lia).
        apply slice_overwrite_in.
        -- rewrite Nat2N.id in S. exact S.
        -- unfold woff in Hfit. lia.
      * pose proof (c_claims _ _ _ C c (or_intror Hc)) as K.
        pose proof (P1 c Hc) as DJ. unfold cdisj in DJ.
        destruct c as [wr' acc'|u' l' o'|wr' o']; cbn [claim_ok c_isw c_uid c_off c_size orb] in *.
        -- destruct K as (cur' & reg' & B' & M1 & M2 & S' & M3 & M4).
           exists cur', reg'. split; [exact B'|]. split; [exact M1|]. split; [exact M2|].
           split; [|split; [exact M3|exact M4]].
           change (bslice (dev_get d' reg') (wr_off wr') (N.of_nat (length acc')) = acc').
           rewrite (OTHER (wr_uid wr') cur' reg'); [exact S'|exact B'|].
           intro E. symmetry in E. specialize (DJ eq_refl E). unfold rdisj in *. lia.
        -- destruct K as (cur' & reg' & B' & M1 & S').
           exists cur', reg'. split; [exact B'|]. split; [exact M1|].
           change (bslice (dev_get d' reg') (l_off l') (l_size l') = content w o').
           rewrite (OTHER u' cur' reg'); [exact S'|exact B'|].
           intro E. symmetry in E. exact (DJ eq_refl E).
        -- destruct K as (M0 & M1 & M2 & M3).
           split; [exact M0|]. split; [exact M1|]. split; [exact M2|].
           intro T. destruct (M3 T) as (cur' & reg' & UA' & B' & S').
           exists cur', reg'. split; [exact UA'|]. split; [exact B'|].
           change (bslice (dev_get d' reg') (wr_off wr') (wr_size wr') = content w o').
           rewrite (OTHER (wr_uid wr') cur' reg'); [exact S'|exact B'|].
           intro E. symmetry in E. exact (DJ eq_refl E).
    + intros k l Hin Hv.
      destruct (c_idx _ _ _ C k l Hin Hv) as (uid & cur' & reg' & UA' & B' & M1 & S').
      exists uid, cur', reg'. split; [exact UA'|]. split; [exact B'|]. split; [exact M1|].
      change (bslice (dev_get d' reg') (l_off l) (l_size l) = content w (fst k)).
      rewrite (OTHER uid cur' reg'); [exact S'|exact B'|].
      intro E. subst uid.
      exact (c_sep_idx _ _ _ C wr acc k l (or_introl eq_refl) Hin Hv UA').
    + cbn [pairwise]. split; [|exact P2]. intros y Hy. exact (P1 y Hy).
    + intros wr' acc' k l [Hw|Hw] Hin Hv UA'.
      * inversion Hw; subst wr'.
        exact (c_sep_idx _ _ _ C wr acc k l (or_introl eq_refl) Hin Hv UA').
      * exact (c_sep_idx _ _ _ C wr' acc' k l (or_intror Hw) Hin Hv UA').
Qed.
