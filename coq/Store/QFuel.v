(** C08Q — FUEL SUFFICIENCY of the loops of Store/Quarantine.v.

    The final allocation loop ([alloc_loop], fuel [alloc_fuel st] = new + 2)
    and the driver of a whole Put() ([put_loop], Run/R08Q.v, fuel [put_fuel])
    run on fuel; out of fuel is the explicit outcome code -1.  This file proves
    that the code is never produced:

    - [alloc_loop]: at every state in which the Put thread stands at [PAlloc]
      the first "new" block has space (that is how the third loop of
      findBlockWithSpace is left), every incrementAllocationBlockIndex leaves
      allocationAttemptsRemaining > 0, and the index cycles through the "new"
      blocks, so after at most new + 1 iterations the loop has returned;
    - [put_loop]: a ranking function ([rank]) that every Put-thread step
      strictly decreases and no callback changes, bounded at Put() entry by
      5 * (live + current + new + 1) <= [put_fuel].  The third loop of
      findBlockWithSpace terminates only when a FRESH block has room for the
      blob: sz <= blockSize - q_pb (the harness places q_pb probe bytes in
      every fresh block); sizes in (blockSize - q_pb, blockSize] make the real
      code rotate for ever, and the model run out of fuel ([sizes_ok] is
      therefore a hypothesis, and [ex_size_hypothesis_needed] the witness). *)
From Coq Require Import List ZArith Bool Lia.
From BBS Require Import Common.Sx Store.Quarantine Store.QuarantineProofs Run.R08Q Run.R08QProofs.
Import ListNotations.
Open Scope Z_scope.

Record NN (st : qst) : Prop := { n_old : 0 <= old st; n_cur : 0 <= cur st; n_new : 0 <= new st }.

Lemma nn_put_step c st : wfq c -> Inv st -> Cap c st -> NN st -> NN (put_step c st).
Proof.
  intros (Hq0 & Hq1 & Hq2) HI HC HN. pose proof (i_sum _ HI) as Hs. pose proof (c_pop _ _ HC) as Hp.
  unfold live in Hs.
  destruct (put_step_cases c st); [exact HN|..]; destruct HN as [Ho' Hc' Hn']; rewrite Epc in Hp;
    try rewrite Ebl in Hs; cbn [length] in Hs; constructor; flds; try assumption; lia.
Qed.

Lemma detect_is_set_tbr st r : exists t md rs, detect st r = set_tbr st t md rs.
Proof.
  assert (Hid : st = set_tbr st (tbr st) (maxdet st) (rdrs st)) by (destruct st; reflexivity).
  unfold detect. destruct (nth_error (rdrs st) r) as [rd|]; [|eauto].
  destruct (r_open rd); [|eauto]. destruct (r_bad rd); eauto.
Qed.

Lemma nn_set_tbr st t md rs : NN st -> NN (set_tbr st t md rs).
Proof. intros [A B C]. constructor; flds; auto. Qed.

Lemma nn_step c st e : wfq c -> Inv st -> Cap c st -> NN st -> NN (step c st e).
Proof.
  intros Hw HI HC H. destruct e; cbn [step].
  - unfold start. destruct (pcs st); try exact H. destruct H. constructor; flds; auto.
  - apply nn_put_step; assumption.
  - unfold finish. destruct (pcs st); try exact H. destruct H. constructor; flds; auto.
  - unfold open. destruct (can_open st k); apply nn_set_tbr, H.
  - destruct (detect_is_set_tbr st r) as (t & md & rs & ->). apply nn_set_tbr, H.
Qed.

Lemma nn_init : NN init.
Proof. constructor; cbn; lia. Qed.

Lemma nn_init_of c : NN (init_of c).
Proof.
  destruct (init_of_shape c) as (o & cu & nw & E & Ho & Hcu & Hnw & _). cbv zeta in E. rewrite E.
  constructor; flds; assumption.
Qed.

Lemma has_space_nonneg c st i sz b : has_space c st i sz = Some b -> 0 <= i.
Proof. unfold has_space. destruct (i <? 0) eqn:E; [discriminate|]. intros _. apply Z.ltb_ge in E. exact E. Qed.

Lemma has_space_set_alloc c st a j i sz : has_space c (set_alloc st a j) i sz = has_space c st i sz.
Proof. reflexivity. Qed.

Lemma has_space_set_pc c st p i sz : has_space c (set_pc st p) i sz = has_space c st i sz.
Proof. reflexivity. Qed.

Lemma shiftl_1_pos n : 0 <= n -> 0 < Z.shiftl 1 n.
Proof. intros H. rewrite Z.shiftl_mul_pow2 by exact H. pose proof (Z.pow_pos_nonneg 2 n). lia. Qed.

Lemma incr_alloc_props c st : 0 < new st -> 0 <= q_new c ->
  exists a, incr_alloc c st = set_alloc st a ((aidx st + 1) mod new st) /\ 0 < a.
Proof.
  intros Hn Hq. unfold incr_alloc.
  pose proof (Z.mod_pos_bound (aidx st + 1) (new st) Hn) as Hm.
  destruct (new st - q_new c <=? (aidx st + 1) mod new st); eexists; (split; [reflexivity|]);
    apply shiftl_1_pos; lia.
Qed.

Lemma alloc_cycle c sz : 0 <= q_new c -> forall k st fuel,
  (k < fuel)%nat -> 0 < new st -> 0 < att st -> 0 <= aidx st < new st ->
  (aidx st = 0 \/ new st - aidx st <= Z.of_nat k) ->
  has_space c st (old st + cur st) sz = Some true ->
  snd (alloc_loop fuel c st sz) <> -1.
Proof.
  intros Hq. induction k as [|k IH]; intros st fuel Hf Hn Ha Hi Hd Hs;
    (destruct fuel as [|f]; [lia|]); cbn [alloc_loop];
    (assert (Eatt : (0 <? att st) = true) by (apply Z.ltb_lt; exact Ha)); rewrite Eatt.
  - assert (E0 : aidx st = 0) by lia. rewrite E0, Z.add_0_r, Hs. cbn [snd].
    pose proof (has_space_nonneg _ _ _ _ _ Hs). lia.
  - destruct (Z.eq_dec (aidx st) 0) as [E0|Hne].
    + rewrite E0, Z.add_0_r, Hs. cbn [snd]. pose proof (has_space_nonneg _ _ _ _ _ Hs). lia.
    + destruct (has_space c st (old st + cur st + aidx st) sz) as [[|]|] eqn:Eh.
      * cbn [snd]. pose proof (has_space_nonneg _ _ _ _ _ Eh). lia.
      * assert (En0 : (new st =? 0) = false) by (apply Z.eqb_neq; lia). rewrite En0.
        destruct (incr_alloc_props c st Hn Hq) as (a & -> & Hpos).
        assert (Hmod : (aidx st + 1) mod new st = (if aidx st + 1 =? new st then 0 else aidx st + 1)).
        { destruct (aidx st + 1 =? new st) eqn:E; [apply Z.eqb_eq in E; rewrite E; apply Z.mod_same; lia|].
          apply Z.eqb_neq in E. apply Z.mod_small. lia. }
        apply IH; flds; auto; try lia.
        -- apply Z.mod_pos_bound. lia.
        -- rewrite Hmod. destruct (aidx st + 1 =? new st) eqn:E; [left; reflexivity|right].
           apply Z.eqb_neq in E. lia.
      * cbn [snd]. lia.
Qed.

Lemma alloc_ok c st sz : 0 <= q_new c -> 0 <= new st ->
  has_space c st (old st + cur st) sz = Some true ->
  snd (alloc_loop (alloc_fuel st) c st sz) <> -1.
Proof.
  intros Hq Hn Hs. unfold alloc_fuel. remember (S (Z.to_nat (new st))) as f0 eqn:Ef0. cbn [alloc_loop].
  destruct (if 0 <? att st
            then match has_space c st (old st + cur st + aidx st) sz with
                 | Some true => Some (Some (old st + cur st + aidx st))
                 | Some false => None
                 | None => Some None
                 end
            else None) as [[i|]|] eqn:Etry.
  - cbn [snd]. destruct (0 <? att st); [|discriminate].
    destruct (has_space c st (old st + cur st + aidx st) sz) as [[|]|] eqn:Eh; try discriminate.
    injection Etry as <-. pose proof (has_space_nonneg _ _ _ _ _ Eh). lia.
  - cbn [snd]. lia.
  - destruct (new st =? 0) eqn:En0; [cbn [snd]; lia|]. apply Z.eqb_neq in En0.
    assert (Hn1 : 0 < new st) by lia.
    destruct (incr_alloc_props c st Hn1 Hq) as (a & -> & Hpos).
    pose proof (Z.mod_pos_bound (aidx st + 1) (new st) Hn1) as Hm.
    apply (alloc_cycle c sz Hq (Z.to_nat (new st) - 1)%nat); flds; auto; try lia.
Qed.

(** What the Put thread knows at [PPush] / [PAlloc] / [PDone]: no hypothesis
    on sizes *)
Definition AInv (c : qcfg) (st : qst) : Prop :=
  match pcs st with
  | PPush sz => has_space c st (old st + cur st) sz = Some false
  | PAlloc sz => has_space c st (old st + cur st) sz = Some true
  | PDone code _ => code <> -1
  | _ => True
  end.

Lemma ainv_put_step c st : wfq c -> NN st -> AInv c st -> AInv c (put_step c st).
Proof.
  intros (Hq0 & Hq1 & Hq2) HN HA. unfold AInv in *.
  destruct (put_step_cases c st); flds; rewrite ?Epc; auto; try lia.
  rewrite Epc in HA. pose proof (alloc_ok c st sz ltac:(lia) (n_new _ HN) HA) as Hok.
  rewrite Eal in Hok. exact Hok.
Qed.

Lemma ainv_set_tbr c st t md rs : AInv c st -> AInv c (set_tbr st t md rs).
Proof. unfold AInv. flds. destruct (pcs st); auto. Qed.

Lemma ainv_step c st e : wfq c -> NN st -> AInv c st -> AInv c (step c st e).
Proof.
  intros Hw HN H. destruct e; cbn [step].
  - unfold start. destruct (pcs st) eqn:Epc; try exact H. unfold AInv. flds. exact I.
  - apply ainv_put_step; assumption.
  - unfold finish. destruct (pcs st) eqn:Epc; try exact H. unfold AInv. flds. exact I.
  - unfold open. destruct (can_open st k); apply ainv_set_tbr, H.
  - destruct (detect_is_set_tbr st r) as (t & md & rs & ->). apply ainv_set_tbr, H.
Qed.

Lemma ainv_init c : AInv c init.
Proof. exact I. Qed.

Lemma init_of_idle c : pcs (init_of c) = Idle.
Proof. destruct (init_of_shape c) as (o & cu & nw & E & _). cbv zeta in E. rewrite E. reflexivity. Qed.

Lemma ainv_init_of c : AInv c (init_of c).
Proof. unfold AInv. rewrite init_of_idle. exact I. Qed.

Lemma reach_all c es : wfq c -> forall st, Inv st -> Cap c st -> NN st -> AInv c st ->
  Inv (run_evs c st es) /\ Cap c (run_evs c st es) /\ NN (run_evs c st es) /\ AInv c (run_evs c st es).
Proof.
  intros Hw. induction es as [|e t IH]; intros st HI HC HN HA; cbn [run_evs fold_left]; [auto|].
  apply IH; [apply inv_step, HI|apply cap_step; assumption|apply nn_step; assumption|apply ainv_step; assumption].
Qed.

(** The final allocation loop never runs out of fuel, and no Put() ever ends
    with the out-of-fuel code: every configuration with 0 <= old, 0 <= current,
    1 <= new, every interleaving. *)
Theorem alloc_fuel_suffices_reach c es :
  wfq c ->
  let st := run_evs c (init_of c) es in
  (forall sz, pcs st = PAlloc sz -> snd (alloc_loop (alloc_fuel st) c st sz) <> -1)
  /\ (forall code idx, pcs st = PDone code idx -> code <> -1).
Proof.
  intros Hw st.
  destruct (reach_all c es Hw (init_of c) (inv_init_of c (proj1 Hw)) (cap_init_of c) (nn_init_of c) (ainv_init_of c))
    as (HI & HC & HN & HA).
  fold st in HI, HC, HN, HA. split.
  - intros sz Epc. unfold AInv in HA. rewrite Epc in HA.
    destruct Hw as (_ & _ & Hq). apply alloc_ok; [lia|apply HN|exact HA].
  - intros code idx Epc. unfold AInv in HA. rewrite Epc in HA. exact HA.
Qed.

Definition szok (c : qcfg) (sz : Z) : Prop := sz <= q_bs c - q_pb c.

Definition SInv (c : qcfg) (st : qst) : Prop :=
  match pcs st with
  | Idle | PDone _ _ => True
  | PStart sz => szok c sz \/ q_bs c < sz
  | PCatch sz _ | PGrow sz | PSpace sz | PPush sz | PPop sz | PRaise sz | PAlloc sz => szok c sz
  end.

Definition nospace (c : qcfg) (sz u : Z) : bool := negb (sz <=? q_bs c - u).

Fixpoint leadl (c : qcfg) (sz : Z) (l : list Z) : nat :=
  match l with
  | [] => O
  | u :: t => if nospace c sz u then S (leadl c sz t) else O
  end.

(** the number of consecutive blocks without room for the blob, from the first "new" block on *)
Definition lead (c : qcfg) (st : qst) (sz : Z) : nat :=
  leadl c sz (skipn (Z.to_nat (old st + cur st)) (blocks st)).

Definition cfgG (c : qcfg) : nat := Z.to_nat (q_cur c + q_new c).
Definition grows (c : qcfg) (st : qst) : nat :=
  if q_mut c then Z.to_nat (1 - new st) else Z.to_nat (q_cur c + q_new c - (cur st + new st)).
Definition nlive (st : qst) : nat := length (blocks st).

Definition rank (c : qcfg) (st : qst) : nat :=
  match pcs st with
  | Idle | PDone _ _ => 0
  | PStart _ => 5 + 5 * nlive st + 5 * cfgG c
  | PCatch _ snap => 4 + Z.to_nat (snap - rel st) + 5 * cfgG c + 4 * nlive st
  | PGrow _ => 3 + 5 * grows c st + 4 * nlive st
  | PSpace sz => 2 + 4 * lead c st sz
  | PPush sz => 1 + 4 * lead c st sz
  | PPop sz => 4 + 4 * lead c st sz
  | PRaise sz => 3 + 4 * lead c st sz
  | PAlloc _ => 1
  end%nat.

Lemma leadl_le c sz l : (leadl c sz l <= length l)%nat.
Proof. induction l as [|u t IH]; cbn [leadl length]; [lia|]. destruct (nospace c sz u); lia. Qed.

Lemma skipn_length_le {A} n (l : list A) : (length (skipn n l) <= length l)%nat.
Proof. rewrite skipn_length. lia. Qed.

Lemma lead_le c st sz : (lead c st sz <= nlive st)%nat.
Proof.
  unfold lead, nlive. pose proof (leadl_le c sz (skipn (Z.to_nat (old st + cur st)) (blocks st))).
  pose proof (skipn_length_le (Z.to_nat (old st + cur st)) (blocks st)). lia.
Qed.

Lemma nth_error_skipn {A} (l : list A) : forall n u, nth_error l n = Some u -> exists t, skipn n l = u :: t.
Proof.
  induction l as [|x r IH]; intros [|n] u H; cbn [nth_error] in H; try discriminate.
  - injection H as ->. eexists. reflexivity.
  - cbn [skipn]. apply IH. exact H.
Qed.

Lemma skipn_S_tail {A} (l : list A) : forall n u t, skipn n l = u :: t -> skipn (S n) l = t.
Proof.
  induction l as [|x r IH]; intros [|n] u t H; cbn [skipn] in *; try discriminate.
  - injection H as _ ->. reflexivity.
  - destruct r as [|y r']; [destruct n; discriminate|]. apply (IH n u t). exact H.
Qed.

Lemma skipn_snoc {A} (l : list A) x : forall n u t, skipn n l = u :: t -> skipn n (l ++ [x]) = u :: t ++ [x].
Proof.
  induction l as [|y r IH]; intros [|n] u t H; cbn [skipn app] in *; try discriminate.
  - injection H as -> ->. reflexivity.
  - apply IH. exact H.
Qed.

Lemma leadl_snoc_room c sz x : nospace c sz x = false -> forall t, leadl c sz (t ++ [x]) = leadl c sz t.
Proof.
  intros Hx. induction t as [|u t IH]; cbn [app leadl]; [rewrite Hx; reflexivity|].
  destruct (nospace c sz u); [rewrite IH|]; reflexivity.
Qed.

(** no room in block [i]: the list from [i] on starts with a block without room *)
Lemma has_space_false c st i sz : has_space c st i sz = Some false ->
  0 <= i /\ exists u t, skipn (Z.to_nat i) (blocks st) = u :: t /\ nospace c sz u = true.
Proof.
  intros H. pose proof (has_space_nonneg _ _ _ _ _ H) as Hi. split; [exact Hi|].
  unfold has_space in H. destruct (i <? 0); [discriminate|].
  destruct (nth_error (blocks st) (Z.to_nat i)) as [u|] eqn:En; [|discriminate].
  destruct (nth_error_skipn _ _ _ En) as (t & Et). exists u, t. split; [exact Et|].
  unfold nospace. injection H as ->. reflexivity.
Qed.

Lemma rank_set_tbr c st t md rs : rank c (set_tbr st t md rs) = rank c st.
Proof. reflexivity. Qed.

Lemma sinv_set_tbr c st t md rs : SInv c st -> SInv c (set_tbr st t md rs).
Proof. exact (fun H => H). Qed.

Lemma grows_pos c st : grow_new c (cur st) (new st) = true <-> (0 < grows c st)%nat.
Proof.
  unfold grow_new, grows. destruct (q_mut c); rewrite Z.ltb_lt; lia.
Qed.

Lemma lead_pushed c st sz o cu : has_space c st (old st + cur st) sz = Some false -> szok c sz ->
  o + cu = old st + cur st + 1 ->
  lead c st sz = S (leadl c sz (skipn (Z.to_nat (o + cu)) (blocks st ++ [q_pb c]))).
Proof.
  intros Hh Hsz E. destruct (has_space_false _ _ _ _ Hh) as (Hi & u & t & Esk & Hu).
  assert (Hpb : nospace c sz (q_pb c) = false).
  { unfold nospace, szok in *. apply negb_false_iff, Z.leb_le. lia. }
  rewrite E. replace (Z.to_nat (old st + cur st + 1)) with (S (Z.to_nat (old st + cur st))) by lia.
  rewrite (skipn_S_tail _ _ _ _ (skipn_snoc _ _ _ _ _ Esk)), (leadl_snoc_room _ _ _ Hpb).
  unfold lead. rewrite Esk. cbn [leadl]. rewrite Hu. reflexivity.
Qed.

(** Every step of the Put thread inside a Put() decreases the rank. *)
Lemma rank_decreases c st : wfq c -> Inv st -> Cap c st -> NN st -> AInv c st -> SInv c st ->
  pcs st <> Idle -> (forall a b, pcs st <> PDone a b) ->
  (rank c (put_step c st) < rank c st)%nat /\ SInv c (put_step c st).
Proof.
  intros (Hq0 & Hq1 & Hq2) HI HC [Ho Hc Hn] HA HS Hni Hnd. unfold AInv in HA. unfold SInv in HS.
  destruct (put_step_cases c st).
  { destruct (running_false _ Hrun) as [E|(a & b & E)]; [contradiction|destruct (Hnd _ _ E)]. }
  all: rewrite Epc in HA, HS; unfold rank at 2; rewrite Epc; unfold rank, SInv, nlive; flds;
    rewrite ?Epc, ?Ebl; cbn [length].
  all: try (split; [lia|exact I || exact HS]).
  - split; [|destruct HS; [assumption|lia]].
    pose proof (i_hi _ HI). pose proof (i_detlive _ HI). unfold tot, live in *. lia.
  - split; [|exact HS].
    assert (grows c st <= cfgG c)%nat by (unfold grows, cfgG; destruct (q_mut c); lia).
    change (grows c (set_pc st (PGrow sz))) with (grows c st). lia.
  - apply grows_pos in Eg. unfold grows in *. flds. rewrite app_length. cbn [length].
    split; [|exact HS]. destruct (q_mut c); lia.
  - split; [|exact HS]. pose proof (lead_le c st sz) as Hl. unfold nlive in Hl.
    change (lead c (set_pc st (PSpace sz)) sz) with (lead c st sz). lia.
  - destruct (has_space_false _ _ _ _ Eh) as (Hi & u & t & Esk & Hu). unfold lead. flds. split; [|exact HS].
    replace (Z.to_nat (old st + (cur st + 1))) with (S (Z.to_nat (old st + cur st))) by lia.
    rewrite (skipn_S_tail _ _ _ _ Esk), Esk. cbn [leadl]. rewrite Hu. lia.
  - split; [|exact HS]. change (lead c (set_pc st (PPush sz)) sz) with (lead c st sz). lia.
  - split; [|exact HS]. unfold lead at 1. flds.
    rewrite (lead_pushed c st sz (old st) (cur st + 1) HA HS) by lia. lia.
  - split; [|exact HS]. unfold lead at 1. flds.
    rewrite (lead_pushed c st sz (old st + 1) (cur st) HA HS) by lia. lia.
  - split; [|exact HS]. unfold lead at 1. flds.
    rewrite (lead_pushed c st sz (old st + 1) (cur st) HA HS) by lia. lia.
  - pose proof (c_pop _ _ HC) as Hp. rewrite Epc in Hp. destruct Hp as [_ Hp].
    unfold lead. flds. rewrite Ebl. split; [|exact HS].
    replace (Z.to_nat (old st + cur st)) with (S (Z.to_nat (old st - 1 + cur st))) by lia.
    cbn [skipn]. lia.
  - unfold lead. flds. split; [lia|exact HS].
Qed.

Record All (c : qcfg) (st : qst) : Prop := {
  a_inv : Inv st; a_cap : Cap c st; a_nn : NN st; a_ainv : AInv c st; a_sinv : SInv c st
}.

Lemma all_put_step c st : wfq c -> All c st -> pcs st <> Idle -> (forall a b, pcs st <> PDone a b) ->
  All c (put_step c st) /\ (rank c (put_step c st) < rank c st)%nat.
Proof.
  intros Hw [HI HC HN HA HS] Hni Hnd.
  destruct (rank_decreases c st Hw HI HC HN HA HS Hni Hnd) as (Hr & HS').
  split; [|exact Hr]. constructor; auto using inv_put_step, cap_put_step, nn_put_step, ainv_put_step.
Qed.

Lemma all_detect c st r : wfq c -> All c st -> All c (detect st r) /\ rank c (detect st r) = rank c st.
Proof.
  intros Hw [HI HC HN HA HS]. split.
  - constructor; [apply inv_detect, HI|apply (cap_step c st (EDetect r)); assumption| | |];
      destruct (detect_is_set_tbr st r) as (t & md & rs & ->);
      [apply nn_set_tbr, HN|apply ainv_set_tbr, HA|apply sinv_set_tbr, HS].
  - destruct (detect_is_set_tbr st r) as (t & md & rs & ->). apply rank_set_tbr.
Qed.

Lemma all_fire c : wfq c -> forall rs st st' ds, All c st -> fire st rs = (st', ds) ->
  All c st' /\ rank c st' = rank c st /\ pcs st' = pcs st.
Proof.
  intros Hw. induction rs as [|r t IH]; intros st st' ds HA H; cbn [fire] in H.
  - injection H as <- <-. auto.
  - destruct (fire (detect st r) t) as [st1 os] eqn:Ef. injection H as <- <-.
    destruct (all_detect c st r Hw HA) as (A1 & A2).
    destruct (IH _ _ _ A1 Ef) as (B1 & B2 & B3).
    destruct (detect_frame st r) as (F1 & _). split; [exact B1|]. split; congruence.
Qed.

Lemma fire_pcs : forall rs st, pcs (fst (fire st rs)) = pcs st.
Proof.
  induction rs as [|r t IH]; intros st; cbn [fire]; [reflexivity|].
  specialize (IH (detect st r)). destruct (fire (detect st r) t) as [st1 os]. cbn [fst] in *.
  rewrite IH. apply detect_frame.
Qed.

Lemma put_loop_not_idle c : forall fuel st hooks,
  pcs st <> Idle -> pcs (fst (put_loop fuel c st hooks)) <> Idle.
Proof.
  induction fuel as [|f IH]; intros st hooks Hni; [rewrite put_loop_0; exact Hni|].
  destruct (running (pcs st)) eqn:Hrun; [|rewrite put_loop_halt by exact Hrun; exact Hni].
  rewrite put_loop_S by exact Hrun. destruct (next_call c st) as [kind|].
  - pose proof (fire_pcs (hd [] hooks) st) as Hf. destruct (fire st (hd [] hooks)) as [st1 ds]. cbn [fst] in Hf.
    assert (Hni1 : pcs st1 <> Idle) by (rewrite Hf; exact Hni).
    specialize (IH (put_step c st1) (tl hooks) (put_step_not_idle c st1 Hni1)).
    destruct (put_loop f c (put_step c st1) (tl hooks)) as [st2 hs]. exact IH.
  - apply IH, put_step_not_idle, Hni.
Qed.

Definition finished (st : qst) : Prop := pcs st = Idle \/ exists a b, pcs st = PDone a b.

Lemma put_loop_done c : wfq c -> forall fuel st hooks,
  All c st -> (rank c st <= fuel)%nat ->
  finished (fst (put_loop fuel c st hooks)) /\ All c (fst (put_loop fuel c st hooks)).
Proof.
  intros Hw. induction fuel as [|f IH]; intros st hooks HA Hr.
  - rewrite put_loop_0. split; [|exact HA]. unfold rank in Hr. unfold finished. cbn [fst].
    destruct (pcs st); eauto; lia.
  - destruct (running (pcs st)) eqn:Hrun.
    2:{ rewrite put_loop_halt by exact Hrun. split; [apply running_false, Hrun|exact HA]. }
    destruct (running_true _ Hrun) as [Hni Hnd].
    rewrite put_loop_S by exact Hrun. destruct (next_call c st) as [kind|].
    + destruct (fire st (hd [] hooks)) as [st1 ds] eqn:Ef.
      destruct (all_fire c Hw _ _ _ _ HA Ef) as (B1 & B2 & B3). rewrite <- B3 in Hni, Hnd.
      destruct (all_put_step c st1 Hw B1 Hni Hnd) as (A1 & A2).
      specialize (IH (put_step c st1) (tl hooks) A1 ltac:(lia)).
      destruct (put_loop f c (put_step c st1) (tl hooks)) as [st2 hs]. exact IH.
    + destruct (all_put_step c st Hw HA Hni Hnd) as (A1 & A2). apply IH; [exact A1|lia].
Qed.

Definition size_ok (c : qcfg) (o : op) : bool :=
  match o with
  | OPut sz _ => (sz <=? q_bs c - q_pb c) || (q_bs c <? sz)
  | _ => true
  end.
Definition sizes_ok (c : qcfg) (ops : list op) : bool := forallb (size_ok c) ops.

Definition not_out_of_fuel (b : oobs) : Prop :=
  match b with BPut code _ _ _ => code <> -1 | _ => True end.

Lemma put_fuel_bound c st sz : wfq c -> pcs st = Idle -> (rank c (start st sz) <= put_fuel c st)%nat.
Proof.
  intros (Hq0 & Hq1 & Hq2) Hidle. unfold rank, start, put_fuel, cfgG, nlive. rewrite Hidle. flds. lia.
Qed.

Lemma all_idle c st : Inv st -> Cap c st -> NN st -> pcs st = Idle -> All c st.
Proof. intros HI HC HN Hp. constructor; auto; [unfold AInv|unfold SInv]; rewrite Hp; exact I. Qed.

Lemma base_step c st e : wfq c -> Inv st -> Cap c st -> NN st ->
  Inv (step c st e) /\ Cap c (step c st e) /\ NN (step c st e).
Proof. auto using inv_step, cap_step, nn_step. Qed.

Lemma run_ops_no_fuel c : wfq c -> forall ops st,
  Inv st -> Cap c st -> NN st -> pcs st = Idle -> sizes_ok c ops = true ->
  Forall not_out_of_fuel (run_ops c st ops).
Proof.
  intros Hw. induction ops as [|o ops IH]; intros st HI HC HN Hidle Hsz; [constructor|].
  cbn [sizes_ok forallb] in Hsz. apply andb_prop in Hsz. destruct Hsz as [Ho Hsz].
  cbn [run_ops]. destruct o as [sz hooks|k bad|r|w|]; cbn [run_op].
  - assert (Est : pcs (start st sz) = PStart sz) by (unfold start; rewrite Hidle; reflexivity).
    destruct (base_step c st (EStart sz) Hw HI HC HN) as (HI1 & HC1 & HN1). cbn [step] in HI1, HC1, HN1.
    assert (HA : All c (start st sz)).
    { constructor; try assumption.
      - unfold AInv. rewrite Est. exact I.
      - unfold SInv, szok. rewrite Est. cbn [size_ok] in Ho. apply orb_prop in Ho.
        destruct Ho as [Ho|Ho]; [left; apply Z.leb_le, Ho|right; apply Z.ltb_lt, Ho]. }
    destruct (put_loop_done c Hw _ _ hooks HA (put_fuel_bound c st sz Hw Hidle)) as (Hfin & HA2).
    assert (Hni : pcs (start st sz) <> Idle) by (rewrite Est; discriminate).
    pose proof (put_loop_not_idle c (put_fuel c st) (start st sz) hooks Hni) as Hx.
    destruct (put_loop (put_fuel c st) c (start st sz) hooks) as [st2 hs] eqn:El. cbn [fst] in Hfin, HA2, Hx.
    destruct HA2 as [HI2 HC2 HN2 HAI2 _].
    destruct Hfin as [E|(a & b & E)]; [congruence|]. rewrite E. cbv beta iota zeta.
    constructor; [cbn [not_out_of_fuel]; unfold AInv in HAI2; rewrite E in HAI2; exact HAI2|].
    destruct (base_step c st2 EEnd Hw HI2 HC2 HN2) as (? & ? & ?). apply IH; auto.
    unfold finish. rewrite E. reflexivity.
  - constructor; [exact I|]. destruct (base_step c st (EOpen k bad) Hw HI HC HN) as (? & ? & ?). apply IH; auto.
    unfold open. destruct (can_open st k); flds; exact Hidle.
  - constructor; [exact I|]. destruct (base_step c st (EDetect r) Hw HI HC HN) as (? & ? & ?). apply IH; auto.
    destruct (detect_frame st r) as (F1 & _). congruence.
  - constructor; [exact I|]. apply IH; auto.
  - constructor; [exact I|]. apply IH; auto.
Qed.

(** No Put() of a schedule whose upload sizes fit a fresh block (or exceed the
    block size: rejected at once) ends with the out-of-fuel code: the
    exemption [code =? -1] of the monitor ([mon_ops], Run/R08Q.v) is never used
    on the model. *)
Theorem put_fuel_suffices_all c ops :
  wfq c -> sizes_ok c ops = true -> Forall not_out_of_fuel (run_ops c (init_of c) ops).
Proof.
  intros Hw Hs.
  apply run_ops_no_fuel; auto using cap_init_of, nn_init_of, init_of_idle.
  apply inv_init_of, Hw.
Qed.
