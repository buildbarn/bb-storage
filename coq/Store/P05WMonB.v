(** C05, idempotence: clauses 2 (repeated Get) and 3 (repeated
    FindMissing with at most one digest present) are never reported on the
    model's own observations with the model's own write indication: the
    inductive invariant relating the monitor's bookkeeping ([t_gets],
    [t_prev]) to the model state. *)
From Coq Require Import Relations.
From Coq Require Import ZifyBool.
From BBS Require Import Common.Sx Common.SxFactsMA Store.Model Store.WfTids Store.Basics Run.RStore Run.R01 Run.R05.
From BBS Require Import Store.P05Cnt Store.P05Step Store.P05Mon Store.P05Inv.
From BBS Require Import Store.P05WRep Store.P05WMonA Store.P05WEnd Store.P05WFm Store.P05WFm2.
Import ListNotations.
Open Scope Z_scope.
Section PI.
Variable w : world.
Let c := w_cfg w.

Definition GetsOK (seen : list nat) (s : state) (gl : list (nat * ((nat * nat) * nat))) : Prop :=
  (forall tid oi pb, assoc gl tid = Some (oi, pb) -> (pb <= s_pushbacks s)%nat) /\
  (forall tid oi pb t, assoc gl tid = Some (oi, pb) -> thr_get (s_threads s) tid = Some t -> GI w s oi pb t) /\
  (forall tid, assoc gl tid <> None -> In tid seen).

Definition PrevInv (s : state) (p : option (op * bool * Z)) : Prop :=
  match p with
  | Some (OGetOpen tid o i, true, pbo) =>
      pbo <= Z.of_nat (s_pushbacks s) /\ (Z.of_nat (s_pushbacks s) <= pbo -> settled w s o i)
  | Some (OGetOpen tid o i, false, wz) => 0 <= wz -> wz = 0 /\ pending_refresh s tid = false
  | Some (OFindMissing ds, true, _) =>
      FMI w s ds \/ (exists pos o i, nth_error ds pos = Some (o, i) /\ LSF w s o i)
  | _ => True
  end.

Record PI (seen : list nat) (s : state) (m : m05) : Prop := {
  pi_kinv : kinv c (proj s);
  pi_winv : winv w s;
  pi_gets : GetsOK seen s (t_gets m);
  pi_prev : PrevInv s (t_prev m);
  pi_no2 : ~ In 2 (t_viol m);
  pi_no3 : ~ In 3 (t_viol m) }.

Lemma GetsOK_frame seen seen' s s1 gl e :
  GetsOK seen s gl -> SF c e s s1 ->
  (forall tid, start_tid e = Some tid -> ~ In tid seen) -> incl seen seen' ->
  GetsOK seen' s1 gl.
Proof.
  intros (G1 & G2 & G3) (R & IN & TF) FR IS.
  pose proof (creach_mono _ _ _ R) as M. unfold kmono in M. cbn in M.
  split; [|split].
  - intros tid oi pb H. specialize (G1 tid oi pb H). lia.
  - intros tid oi pb t HA HT.
    destruct t as [? ? ? ?|? ? ?|o u l r f|? ? ? ? ? ?|?]; try (intros _; exact I).
    destruct (TF tid o u l r f HT) as [HT0|HS].
    + eapply GI_frame; eauto.
    + exfalso. apply (FR tid HS). apply G3. rewrite HA. discriminate.
  - intros tid H. apply IS, G3, H.
Qed.

Lemma assoc_unassoc_none {T} (l : list (nat * T)) tid tid' :
  assoc (unassoc l tid) tid' <> None -> assoc l tid' <> None.
Proof.
  destruct (assoc (unassoc l tid) tid') as [x|] eqn:E; [|congruence].
  intros _. rewrite (assoc_unassoc _ _ _ _ E). discriminate.
Qed.

Lemma GetsOK_unassoc seen s gl tid : GetsOK seen s gl -> GetsOK seen s (unassoc gl tid).
Proof.
  intros (G1 & G2 & G3). split; [|split].
  - intros tid' oi pb H. eapply G1. eapply assoc_unassoc; eauto.
  - intros tid' oi pb t H. eapply G2. eapply assoc_unassoc; eauto.
  - intros tid' H. apply G3. eapply assoc_unassoc_none; eauto.
Qed.

Lemma GetsOK_cons seen s gl tid oi :
  GetsOK seen s gl ->
  (forall t, thr_get (s_threads s) tid = Some t -> GI w s oi (s_pushbacks s) t) ->
  GetsOK (tid :: seen) s ((tid, (oi, s_pushbacks s)) :: gl).
Proof.
  intros (G1 & G2 & G3) GN. split; [|split].
  - intros tid' oi' pb. cbn [assoc]. destruct (Nat.eqb tid' tid).
    + intros E; inversion E; subst. lia.
    + apply G1.
  - intros tid' oi' pb t. cbn [assoc]. destruct (Nat.eqb tid' tid) eqn:E.
    + apply Nat.eqb_eq in E. subst tid'. intros E; inversion E; subst. apply GN.
    + apply G2.
  - intros tid'. cbn [assoc]. destruct (Nat.eqb tid' tid) eqn:E.
    + apply Nat.eqb_eq in E. subst. intros _. left. reflexivity.
    + intros H. right. apply G3, H.
Qed.

Lemma GetsOK_mono seen seen' s gl : incl seen seen' -> GetsOK seen s gl -> GetsOK seen' s gl.
Proof. intros IS (G1 & G2 & G3). split; [exact G1|]. split; [exact G2|]. intros tid H. apply IS, G3, H. Qed.

Lemma loss_vals m oi pb z : In z (loss_clauses w m oi pb) -> z = 1 \/ z = 5 \/ z = 6.
Proof.
  unfold loss_clauses. destruct (t_corrupt m); [intros []|].
  destruct (recent w (t_touched m) oi pb); [intros [<-|[]]; auto|].
  intros H. apply in_app_or in H. destruct H as [H|H].
  - destruct (recent w (t_late_get m) oi pb); [destruct H as [<-|[]]; auto|destruct H].
  - destruct (recent w (t_late_fm m) oi pb); [destruct H as [<-|[]]; auto|destruct H].
Qed.

Lemma notin_app_loss k v ls :
  k = 2 \/ k = 3 -> ~ In k v -> (forall z, In z ls -> z = 1 \/ z = 5 \/ z = 6) -> ~ In k (v ++ ls).
Proof. intros HK N LS H. apply in_app_or in H. destruct H as [H|H]; [exact (N H)|]. apply LS in H. lia. Qed.

Lemma PI_loss seen s m oi pb (b : bool) :
  PI seen s (m_setprev m None) ->
  PI seen s (m_setprev (if b then m_viol m (loss_clauses w m oi pb) else m) None).
Proof.
  intros HP. destruct b; [|exact HP]. destruct HP as [K WI G P N2 N3].
  constructor; auto; cbn [t_viol m_setprev m_viol] in *; apply notin_app_loss; auto; apply loss_vals.
Qed.

Lemma app_eq_len {T} : forall (a a' b b' : list T), length a = length a' -> a ++ b = a' ++ b' -> a = a' /\ b = b'.
Proof.
  induction a as [|x a IH]; intros [|x' a'] b b' L E; cbn in *; try discriminate; [auto|].
  inversion E; subst. destruct (IH a' b b') as [-> ->]; auto.
Qed.
Lemma pairs_eq (ds ds' : list (nat * nat)) : map fst ds = map fst ds' -> map snd ds = map snd ds' -> ds = ds'.
Proof.
  revert ds'. induction ds as [|[a b] t IH]; intros [|[a' b'] t'] E1 E2; cbn in *; try discriminate; [reflexivity|].
  inversion E1; inversion E2; subst. f_equal. apply IH; auto.
Qed.
Lemma digests_eq (ds ds' : list (nat * nat)) :
  sx_eqb (of_nats (map fst ds ++ map snd ds)) (of_nats (map fst ds' ++ map snd ds')) = true -> ds = ds'.
Proof.
  intros H. apply sx_eqb_eq in H. unfold of_nats in H. inversion H as [H1]. clear H.
  assert (INJ : forall a b : list nat, map of_nat a = map of_nat b -> a = b).
  { induction a as [|x a IH]; intros [|y b] E; try discriminate; [reflexivity|].
    cbn in E. inversion E as [[E1 E2]]. apply Nat2Z.inj in E1. subst. f_equal. apply IH, E2. }
  apply INJ in H1.
  assert (LN : length (map fst ds) = length (map fst ds')).
  { apply (f_equal (@length nat)) in H1. rewrite !app_length, !map_length in H1. rewrite !map_length. lia. }
  destruct (app_eq_len _ _ _ _ LN H1) as [E1 E2]. apply pairs_eq; auto.
Qed.

Lemma PI_step seen s m e :
  PI seen s m ->
  (forall tid, start_tid e = Some tid -> ~ In tid seen) ->
  PI (match start_tid e with Some t => t :: seen | None => seen end) (fst (step w s e))
     (m05w_step w m (e, (s, fst (step w s e), snd (step w s e)))).
Proof.
  intros [K WI G P N2 N3] FR.
  destruct (step w s e) as [s1 mo] eqn:ES. cbn [fst snd].
  pose proof (step_frame w s e s1 mo K ES) as SFr.
  assert (K1 : kinv c (proj s1)) by (eapply creach_kinv; [exact (proj1 SFr)|exact K]).
  pose proof (step_winv w s e s1 mo K WI ES) as WI1.
  pose proof (creach_mono _ _ _ (proj1 SFr)) as MO. unfold kmono in MO. cbn in MO.
  set (seen' := match start_tid e with Some t => t :: seen | None => seen end).
  assert (IS : incl seen seen') by (unfold seen'; destruct (start_tid e); [apply incl_tl|]; apply incl_refl).
  assert (G0 : GetsOK seen s1 (t_gets m)) by (eapply GetsOK_frame; eauto; apply incl_refl).
  pose proof (GetsOK_mono _ _ _ _ IS G0) as G1.
  (* an event answered Bad by an operation other than Get / FindMissing / Corrupt keeps the bookkeeping *)
  assert (OTHER : forall m1,
            m1 = (if Z.eqb (ob_kind (enc_obs05 w e s s1 mo)) 3 then m else m_setprev m None) ->
            PI seen' s1 m1).
  { intros m1 ->. rewrite obk. destruct mo; cbn [out_kind]; cbn [Z.eqb Pos.eqb];
      try (constructor; cbn [t_gets t_prev t_viol m_setprev]; auto; exact I).
    pose proof (step_bad_same w s e s1 K ES) as ->. constructor; auto. }
  unfold m05w_step.
  destruct e as [tid o i|tid data|tid err|tid o i|tid|ds|tid p i ch|tid slices|r off len];
    try (apply OTHER; reflexivity).
  - (* OGetOpen *)
    cbn [m05_step]. rewrite obk, obc, obw.
    destruct mo as [code bytes| |code dd|]; cbn [out_kind out_code]; cbn [Z.eqb Pos.eqb].
    + apply PI_loss, OTHER. rewrite obk. reflexivity.
    + destruct (get_open_GI w s tid o i s1 K WI ES) as (u & l & r & f & HT & GN).
      constructor; auto; cbn [t_gets t_prev t_viol m_setprev m_setgets].
      * change seen' with (tid :: seen).
        apply GetsOK_cons; [exact G0|].
        intros t' E. rewrite HT in E. inversion E; subst t'. exact GN.
      * destruct (t_prev m) as [[[pe pb0] pw]|]; [|exact I].
        destruct pe; try exact I. destruct pb0; [|exact I].
        destruct (Nat.eqb o obj && Nat.eqb i inst && (0 <=? (wbit w (OGetOpen tid o i) s s1))) eqn:C3;
          [|exact I].
        apply andb_true_iff in C3. destruct C3 as [C3 _]. apply andb_true_iff in C3. destruct C3 as [C1 C2].
        apply Nat.eqb_eq in C1, C2. subst obj inst.
        cbn [PrevInv]. cbn [PrevInv] in P. destruct P as [P1 P2].
        destruct (pw <? Z.of_nat (s_pushbacks s)) eqn:AG.
        -- intros H. destruct (wbit_range w (OGetOpen tid o i) s s1) as [W|W]; rewrite W in H; clear - H; lia.
        -- intros _. apply Z.ltb_ge in AG. specialize (P2 AG).
           destruct (settled_step_get_open w s tid o i _ Parked P2 ES) as [Q PR].
           split; [|apply PR; reflexivity].
           unfold wbit. rewrite (wrote_open_quiet w s tid o i _ Q). reflexivity.
    + (* Missing: not produced by OGetOpen, handled like Done *)
      apply PI_loss, OTHER. rewrite obk. reflexivity.
    + change (Z.eqb 0 cNotFound) with false. cbv iota.
      constructor; auto; cbn [t_gets t_prev t_viol m_setprev]. exact I.
  - (* OGetConsume *)
    cbn [m05_step]. rewrite obok, obw.
    destruct (assoc (t_gets m) tid) as [[oi pb_open]|] eqn:EA.
    2:{ constructor; auto; cbn [t_gets t_prev t_viol m_setprev]. exact I. }
    set (m1 := m_setgets m (unassoc (t_gets m) tid)).
    assert (GU : GetsOK seen' s1 (unassoc (t_gets m) tid)) by (apply GetsOK_unassoc; exact G1).
    (* the clause-2 site *)
    match goal with |- PI _ _ (if _ then m_setprev (m_late_get (m_touch ?M2 _ _) _ _) _ else _) => set (m2 := M2) end.
    assert (V2 : t_gets m2 = unassoc (t_gets m) tid /\ ~ In 2 (t_viol m2) /\ ~ In 3 (t_viol m2)).
    { unfold m2. destruct (t_prev m) as [[[pe pb0] pw]|] eqn:EP; [|cbn; auto].
      destruct pe; try (cbn; auto; fail). destruct pb0; [cbn; auto|].
      match goal with |- context [if ?C then _ else _] => destruct C eqn:CC end; [|cbn; auto].
      cbn [t_gets t_viol m_viol m1 m_setgets]. split; [reflexivity|].
      apply andb_true_iff in CC. destruct CC as [CC C4]. apply andb_true_iff in CC. destruct CC as [CC C3].
      apply andb_true_iff in CC. destruct CC as [C1 C2]. apply Nat.eqb_eq in C1. subst tid0.
      destruct (pw <? 0) eqn:AG.
      - split.
        + intros H. apply in_app_or in H. destruct H as [H|[H|[]]]; [exact (N2 H)|discriminate].
        + intros H. apply in_app_or in H. destruct H as [H|[H|[]]]; [exact (N3 H)|discriminate].
      - exfalso. apply Z.ltb_ge in AG. try rewrite EP in P. cbn [PrevInv] in P. destruct (P AG) as [-> PR].
        destruct mo as [cd bs| |cd dd|]; try discriminate.
        apply Z.ltb_lt in C4. unfold wbit in C4. cbn [wrote] in C4. rewrite PR in C4. cbn in C4. clear - C4. lia. }
    destruct V2 as (VG & V2 & V3).
    destruct (out_ok mo) eqn:OK.
    + constructor; auto; cbn [t_gets t_prev t_viol m_setprev m_late_get m_touch].
      * rewrite VG. exact GU.
      * (* prev: the Get of oi completed successfully *)
        cbn [PrevInv]. destruct G as (Ga & Gb & Gc).
        pose proof (Ga tid oi pb_open EA) as LE0.
        split; [clear - LE0 MO; lia|]. intros LE1.
        destruct mo as [cd bs| |cd dd|]; try discriminate. cbn [out_ok] in OK. apply Z.eqb_eq in OK. subst cd.
        destruct (step_getconsume w s tid s1 _ ES) as [[X _]|(o' & u' & l' & r' & f' & code & bs' & s0' & HT' & GC & E1 & X)];
          [discriminate|].
        assert (PBs : s_pushbacks s = pb_open) by (clear - LE0 LE1 MO; lia).
        pose proof (Gb tid oi pb_open _ EA HT' PBs) as GIb.
        destruct r' as [wr|].
        -- destruct GIb as (A & B & C0). destruct oi as [oo ii]. cbn [fst snd] in *.
           eapply consume_settles with (sa := s); eauto; [exact (proj2 WI1)|clear - LE1 MO PBs; lia].
        -- destruct oi as [oo ii]. cbn [fst snd] in *.
           pose proof (settled_step w s (OGetConsume tid) oo ii K) as SS. rewrite ES in SS. cbn [fst] in SS.
           apply SS; [clear - LE1 MO PBs; lia|exact GIb].
    + constructor; auto; cbn [t_gets t_prev t_viol m_setprev].
      * rewrite VG. exact GU.
      * exact I.
  - (* OFindMissing *)
    cbn [m05_step]. rewrite obk, obc, obw.
    destruct mo as [code bytes| |code mm|]; cbn [out_kind]; cbn [Z.eqb Pos.eqb andb];
      try (constructor; auto; cbn [t_gets t_prev t_viol m_setprev]; exact I).
    cbn [out_code]. destruct (Z.eqb code 0) eqn:C0;
      [|constructor; auto; cbn [t_gets t_prev t_viol m_setprev]; exact I].
    apply Z.eqb_eq in C0. subst code. rewrite obmiss. cbv zeta.
    match goal with |- PI _ _ (m_setprev (fold_left ?F ?L ?M2) _) => set (m2 := M2); set (ff := F); set (ll := L) end.
    assert (FOLD : forall l a, t_gets (fold_left ff l a) = t_gets a /\ t_viol (fold_left ff l a) = t_viol a).
    { induction l as [|[pos oi] l IHl]; intros a; cbn [fold_left]; [auto|].
      destruct (IHl (ff a (pos, oi))) as [A B]. rewrite A, B. unfold ff.
      destruct (existsb (Nat.eqb pos) mm); [auto|]. unfold m_touch_fm.
      destruct (Nat.ltb 1 (length ds)); cbn; auto. }
    destruct (FOLD ll m2) as [FG FV].
    assert (V2 : t_gets m2 = t_gets m /\ ~ In 2 (t_viol m2) /\ ~ In 3 (t_viol m2)).
    { unfold m2.
      set (ls := flat_map (fun '(pos, oi) => if existsb (Nat.eqb pos) mm then loss_clauses w m oi (s_pushbacks s1) else [])
                          (enumerate 0 ds)).
      assert (LS : forall z, In z ls -> z = 1 \/ z = 5 \/ z = 6).
      { intros z Hz. unfold ls in Hz. apply in_flat_map in Hz. destruct Hz as [[pos oi] [_ Hz]].
        destruct (existsb (Nat.eqb pos) mm); [eapply loss_vals; eauto|destruct Hz]. }
      assert (B2 : ~ In 2 (t_viol (m_viol m ls))) by (apply notin_app_loss; auto).
      assert (B3 : ~ In 3 (t_viol (m_viol m ls))) by (apply notin_app_loss; auto).
      destruct (t_prev m) as [[[pe pb0] pw]|] eqn:EP; [|cbn; auto].
      destruct pe; try (cbn; auto; fail). destruct pb0; [|cbn; auto].
      match goal with |- context [if ?C then _ else _] => destruct C eqn:CC end; [|cbn; auto].
      apply andb_true_iff in CC. destruct CC as [C1 C2].
      cbn [t_gets t_viol m_viol]. split; [reflexivity|]. split.
      - intros H. apply in_app_or in H. destruct H as [H|[H|[]]]; [exact (B2 H)|].
        destruct (Nat.leb (length ds - length mm) 1); discriminate.
      - intros H. apply in_app_or in H. destruct H as [H|[H|[]]]; [exact (B3 H)|].
        exfalso.
        pose proof (digests_eq ds ds0 C1) as <-.
        try rewrite EP in P. cbn [PrevInv] in P.
        apply Z.ltb_lt in C2. unfold wbit in C2.
        destruct (wrote w s (OFindMissing ds) s1) eqn:WR; [|clear - C2; lia]. cbn [wrote] in WR.
        assert (NS : sigs s1 <> sigs s).
        { intros E. rewrite (alloc_grew_false _ _ E) in WR. discriminate. }
        destruct (step_fm_ok w s ds s1 _ K ES) as (m0 & FM & ->).
        destruct P as [P|(pos & o & i & PN & PL)].
        + apply NS, (settled_find_missing w s ds _ s1 P FM).
        + pose proof (repeat_call_count w s ds m0 s1 pos o i (conj K WI) PN PL FM NS) as CNT.
          rewrite length_sort_nat in H.
          assert (L1 : Nat.leb (length ds - length m0) 1 = false) by (apply Nat.leb_gt; clear - CNT; lia).
          rewrite L1 in H. discriminate. }
    destruct V2 as (VG & V2 & V3).
    constructor; auto; cbn [t_gets t_prev t_viol m_setprev].
    + rewrite FG, VG. exact G1.
    + cbn [PrevInv].
      destruct (step_fm_ok w s ds s1 _ K ES) as (m0 & FM & _).
      exact (find_missing_leaves w s ds m0 s1 (conj K WI) FM).
    + rewrite FV. exact V2.
    + rewrite FV. exact V3.
  - (* OCorrupt *)
    cbn [m05_step]. constructor; auto; cbn [t_gets t_prev t_viol m_setcorrupt]. exact I.
Qed.

Lemma PI_init : PI [] (init_state c) m05_init.
Proof.
  constructor; cbn.
  - apply kinv_init.
  - apply winv_init.
  - split; [|split]; intros; try discriminate. cbn in H. congruence.
  - exact I.
  - intros [].
  - intros [].
Qed.

Lemma PI_run : forall es seen s m,
  PI seen s m -> wf_tids_from seen es = true ->
  let m' := fold_left (m05w_step w) (xs_of w s es) m in
  ~ In 2 (t_viol m') /\ ~ In 3 (t_viol m').
Proof.
  induction es as [|e t IH]; intros seen s m HP WT; cbv zeta.
  - split; [apply (pi_no2 _ _ _ HP)|apply (pi_no3 _ _ _ HP)].
  - rewrite xs_of_cons. cbn [fold_left]. apply wf_tids_from_cons in WT. destruct WT as [FR WT].
    exact (IH _ _ _ (PI_step seen s m e HP FR) WT).
Qed.
End PI.
