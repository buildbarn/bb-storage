(** C05, idempotence: every index entry (and every writer held by a
    parked operation) lies below the end of the block list.

    Consequence used by the multi-digest FindMissing argument: validity of
    an EXISTING entry can only be lost, never gained (the quarantine mark and
    the released count only grow; the entry is already below the end), so a
    key without a valid entry stays without one until an entry is stored
    under it.

    This file has the invariants and what the primitive moves do to them;
    that [step] keeps them is part of the walk in P05Step.v. *)
From Coq Require Import List ZArith Bool Lia.
From Coq Require Import ZifyBool.
From BBS Require Import Store.Model Store.P05Cnt Store.P05Frame Store.P05WInv.
Import ListNotations.
Open Scope N_scope.

Definition wr_ok (s : state) (wr : writer) : Prop := wr_abs wr < k_end (proj s).
Definition twr (s : state) (t : thread) : Prop :=
  match t with
  | TPut _ _ wr _ => wr_ok s wr
  | TGet _ _ _ (Some wr) _ => wr_ok s wr
  | TGfc _ _ _ _ (Some wr) _ => wr_ok s wr
  | _ => True
  end.
Definition eix (s : state) : Prop := forall k l, In (k, l) (s_index s) -> l_abs l < k_end (proj s).
Definition einv (s : state) : Prop :=
  eix s /\ forall tid t, thr_get (s_threads s) tid = Some t -> twr s t.

Lemma kend_mono c s s' : creach c (proj s) (proj s') -> k_end (proj s) <= k_end (proj s').
Proof. intros R. apply creach_mono in R. unfold kmono in R. lia. Qed.

Lemma wr_ok_mono c s s' wr : creach c (proj s) (proj s') -> wr_ok s wr -> wr_ok s' wr.
Proof. intros R H. pose proof (kend_mono _ _ _ R). unfold wr_ok in *. lia. Qed.

Lemma twr_mono c s s' t : creach c (proj s) (proj s') -> twr s t -> twr s' t.
Proof.
  intros R. destruct t as [? ? wr ?|? ? ?|? ? ? [wr|] ?|? ? ? ? [wr|] ?|?]; cbn [twr]; auto; eapply wr_ok_mono; eauto.
Qed.

Lemma einv_fr c s s' : fr c s s' -> einv s -> einv s'.
Proof.
  intros [R [I T]] [H1 H2]. pose proof (kend_mono _ _ _ R) as M. split.
  - intros k l. rewrite I. intros H. specialize (H1 k l H). lia.
  - intros tid t. rewrite T. intros H. eapply twr_mono; eauto.
Qed.
Lemma twr_proj s s' t : proj s' = proj s -> twr s t -> twr s' t.
Proof.
  intros P. destruct t as [? ? wr ?|? ? ?|? ? ? [wr|] ?|? ? ? ? [wr|] ?|?]; cbn [twr]; auto; unfold wr_ok; rewrite P; auto.
Qed.

Lemma einv_put s k l : einv s -> l_abs l < k_end (proj s) -> einv (index_put s k l).
Proof.
  intros [H1 H2] HL. destruct (same_index_put s k l) as (P & T & I). split.
  - intros k' l'. rewrite I, P. intros [E|H]; [inversion E; subst; exact HL|exact (H1 _ _ H)].
  - intros tid t. rewrite T. intros H. eapply twr_proj; eauto.
Qed.

Lemma einv_put_all ks : forall s l, einv s -> l_abs l < k_end (proj s) -> einv (index_put_all s ks l).
Proof.
  induction ks as [|k t IH]; intros s l H HL; cbn [index_put_all]; [exact H|].
  apply IH; [apply einv_put; auto|exact HL].
Qed.

Lemma einv_set s tid t : einv s -> twr s t -> einv (thr_set s tid t).
Proof.
  intros [H1 H2] Ht. split; [exact H1|].
  intros tid' t'. rewrite thr_get_set. destruct (Nat.eqb tid tid').
  - intros E; inversion E; subst. exact Ht.
  - intros H. exact (H2 _ _ H).
Qed.
Lemma einv_rm s tid : einv s -> einv (thr_rm s tid).
Proof.
  intros [H1 H2]. split; [exact H1|].
  intros tid' t'. rewrite thr_get_rm. destruct (Nat.eqb tid tid'); [discriminate|]. intros H. exact (H2 _ _ H).
Qed.
Lemma einv_init c : einv (init_state c).
Proof. split; [intros k l []|intros tid t; discriminate]. Qed.

Lemma ocn_put_wr c s size wr s' : ocn_put c s size = (Ok wr, s') -> wr_ok s' wr.
Proof.
  intros H. apply ocn_put_spec in H. destruct H as (_ & _ & B).
  unfold wr_ok, k_end. cbn. exact B.
Qed.

Lemma finalize_loc c s wr ok l s' : finalize c s wr ok = (Ok l, s') -> l_abs l = wr_abs wr.
Proof. intros H. apply finalize_spec in H. exact (proj1 (proj2 H)). Qed.

Lemma wr_ok_same s s' wr : same s s' -> wr_ok s wr -> wr_ok s' wr.
Proof. intros [P _]. unfold wr_ok. rewrite P. auto. Qed.

(** both index invariants; [hinv] (P05WInv.v) holds, and is needed, in
    hierarchical mode only *)
Definition winv (w : world) (s : state) : Prop := einv s /\ (c_hier (w_cfg w) = true -> hinv s).
Definition tgood (w : world) (s : state) (t : thread) : Prop := twr s t /\ (c_hier (w_cfg w) = true -> tok t).

Lemma winv_fr w s s' : fr (w_cfg w) s s' -> winv w s -> winv w s'.
Proof. intros F [E H]. split; [exact (einv_fr _ _ _ F E)|intros Hh; exact (hinv_fr _ _ _ F (H Hh))]. Qed.
Lemma winv_put_all w s ks l :
  winv w s -> l_abs l < k_end (proj s) -> (c_hier (w_cfg w) = true -> fk_closed ks) ->
  winv w (index_put_all s ks l).
Proof. intros [E H] B C. split; [apply einv_put_all; auto|intros Hh; apply hinv_put_all; auto]. Qed.
Lemma winv_copy w s o k l :
  winv w s -> In (canonical_key o, l) (s_index s) -> (c_hier (w_cfg w) = true -> exists a, k = (o, S a)) ->
  winv w (index_put s k l).
Proof.
  intros [E H] IC HK. split; [apply einv_put; [exact E|exact (proj1 E _ _ IC)]|].
  intros Hh. destruct (HK Hh) as (a & ->). apply hinv_put; auto.
Qed.
Lemma winv_set w s tid t : winv w s -> tgood w s t -> winv w (thr_set s tid t).
Proof. intros [E H] [T1 T2]. split; [apply einv_set; auto|intros Hh; apply hinv_set; auto]. Qed.
Lemma winv_rm w s tid : winv w s -> winv w (thr_rm s tid).
Proof. intros [E H]. split; [apply einv_rm; auto|intros Hh; apply hinv_rm; auto]. Qed.
Lemma winv_thr w s tid t : winv w s -> thr_get (s_threads s) tid = Some t -> tgood w s t.
Proof. intros [E H] ET. split; [exact (proj2 E _ _ ET)|intros Hh; exact (proj2 (H Hh) _ _ ET)]. Qed.
Lemma winv_flat w s : c_hier (w_cfg w) = false -> einv s -> winv w s.
Proof. intros Hh E. split; [exact E|rewrite Hh; discriminate]. Qed.
Lemma winv_init w : winv w (init_state (w_cfg w)).
Proof. split; [apply einv_init|intros _; apply hinv_init]. Qed.
