(** C08Q — COMPOSITION of the compare-and-swap loop (Store/CasMax.v) with the
    quarantine model (Store/Quarantine.v).

    Store/Quarantine.v executes a call of increaseTotalBlocksToBeReleased as
    ONE atomic step "boundary := max boundary target": the integrity callback
    of a reader ([detect]) and the raise of a rotation (the [PRaise] step of the
    Put thread).  Here the same system is modelled at the granularity of the
    atomic operations of that loop

      for { old := v.Load(); if new <= old { return 0 }
            if v.CompareAndSwap(old, new) { return new - old } }

    every reader's callback and the Put thread's raise are threads with a
    program counter of Store/CasMax.v ([CLoad] / [CCas old] / [CRet r]); one
    event performs ONE Load or ONE CompareAndSwap ([cas_op], which is
    [CasMax.cstep] on the variable and that thread), interleaved arbitrarily with
    the operations of all other threads and with every other step of the model.

    Result (forward simulation with stuttering, linearisation points: the Load
    that finds new <= old, the CompareAndSwap that succeeds): the sequence of
    abstract states of EVERY fine-grained trace is a trace of the coarse model
    in which the other steps are stutter steps ([fine_refines_coarse_all]); the
    value a callback's call returns at its linearisation point is the amount the
    coarse [detect_obs] reports ([fine_detect_obs_all]).  Hence every state of the
    fine-grained system is a reachable state of the coarse model and all
    theorems about reachable states (Props/C08Q.v) hold of it. *)
From Coq Require Import List ZArith Bool Lia.
From BBS Require Import Store.Quarantine Store.QuarantineProofs Store.CasMax Run.R08QProofs.
Import ListNotations.
Open Scope Z_scope.

(** ONE atomic operation of the loop of a call asking for [tgt] whose program
    counter is [p], on the atomic variable holding [v]: [CasMax.cstep]. *)
Definition cas_op (v tgt : Z) (p : cpc) : Z * cpc :=
  let s := cstep {| c_v := v; c_ths := [{| c_new := tgt; c_pc := p |}] |} (CStep 0) in
  (c_v s, match c_ths s with t :: _ => c_pc t | [] => p end).

Lemma cas_op_spec v tgt p :
  cas_op v tgt p =
  match p with
  | CLoad => if tgt <=? v then (v, CRet 0) else (v, CCas v)
  | CCas ov => if v =? ov then (tgt, CRet (tgt - ov)) else (v, CLoad)
  | CRet r => (v, CRet r)
  end.
Proof.
  unfold cas_op. destruct p as [|ov|r]; cbn.
  - destruct (tgt <=? v); reflexivity.
  - destruct (v =? ov); reflexivity.
  - reflexivity.
Qed.

(** In a CasMax state with any number of threads, a step of thread [i] is
    [cas_op] on the variable and that thread: the fine-grained system below,
    projected to the boundary and its callers, is a CasMax run. *)
Lemma cstep_is_cas_op s i t : nth_error (c_ths s) i = Some t ->
  cstep s (CStep i) =
  {| c_v := fst (cas_op (c_v s) (c_new t) (c_pc t));
     c_ths := match c_pc t with
              | CRet _ => c_ths s
              | _ => upd (c_ths s) i {| c_new := c_new t; c_pc := snd (cas_op (c_v s) (c_new t) (c_pc t)) |}
              end |}.
Proof.
  intros En. rewrite cas_op_spec. cbn [cstep]. rewrite En. destruct (c_pc t) as [|ov|r].
  - destruct (c_new t <=? c_v s); reflexivity.
  - destruct (c_v s =? ov); reflexivity.
  - destruct s; reflexivity.
Qed.

Record fstate := {
  f_q : qst;             (* the state of Store/Quarantine.v *)
  f_rp : list cpc;       (* per reader: where its callback's call stands *)
  f_pp : cpc             (* where the Put thread's raise stands *)
}.

Fixpoint upd_pc (l : list cpc) (n : nat) (p : cpc) : list cpc :=
  match l, n with
  | [], _ => []
  | _ :: t, O => p :: t
  | x :: t, S m => x :: upd_pc t m p
  end.

Definition is_ret (p : cpc) : bool := match p with CRet _ => true | _ => false end.

(** One atomic operation of the callback of reader [r] (a read of an intact
    probe just completes). *)
Definition fdetect (s : fstate) (r : nat) : fstate :=
  let q := f_q s in
  match nth_error (rdrs q) r, nth_error (f_rp s) r with
  | Some rd, Some p =>
      if r_open rd then
        if r_bad rd then
          let '(v', p') := cas_op (tbr q) (r_tgt rd) p in
          if is_ret p'
          then (* the call has returned: the read fails, the reader is finished *)
            {| f_q := set_tbr q v' (Z.max (maxdet q) (r_tgt rd)) (upd_rdr (rdrs q) r);
               f_rp := upd_pc (f_rp s) r p'; f_pp := f_pp s |}
          else {| f_q := set_tbr q v' (maxdet q) (rdrs q); f_rp := upd_pc (f_rp s) r p'; f_pp := f_pp s |}
        else {| f_q := set_tbr q (tbr q) (maxdet q) (upd_rdr (rdrs q) r); f_rp := f_rp s; f_pp := f_pp s |}
      else s
  | _, _ => s
  end.

(** One step of the Put thread; at [PRaise] one atomic operation of
    increaseTotalBlocksToBeReleased(totalBlocksReleased), and when that call
    has returned, resetAllocationBlockIndex and on to the space test. *)
Definition fput (c : qcfg) (s : fstate) : fstate :=
  let q := f_q s in
  match pcs q with
  | PRaise sz =>
      let '(v', p') := cas_op (tbr q) (rel q) (f_pp s) in
      if is_ret p'
      then {| f_q := set_pc (reset_alloc (set_tbr q v' (maxdet q) (rdrs q))) (PSpace sz);
              f_rp := f_rp s; f_pp := CLoad |}
      else {| f_q := set_tbr q v' (maxdet q) (rdrs q); f_rp := f_rp s; f_pp := p' |}
  | _ => {| f_q := put_step c q; f_rp := f_rp s; f_pp := f_pp s |}
  end.

Definition fstep (c : qcfg) (s : fstate) (e : ev) : fstate :=
  match e with
  | EStart sz => {| f_q := start (f_q s) sz; f_rp := f_rp s; f_pp := f_pp s |}
  | EPut => fput c s
  | EEnd => {| f_q := finish (f_q s); f_rp := f_rp s; f_pp := f_pp s |}
  | EOpen k bad => {| f_q := open (f_q s) k bad; f_rp := f_rp s ++ [CLoad]; f_pp := f_pp s |}
  | EDetect r => fdetect s r
  end.

Definition finit (c : qcfg) : fstate := {| f_q := init_of c; f_rp := []; f_pp := CLoad |}.
Definition frun (c : qcfg) (s : fstate) (es : list ev) : fstate := fold_left (fstep c) es s.

(** Linearisation: the coarse event a fine step is (None: a stutter step) *)
Definition lin (c : qcfg) (s : fstate) (e : ev) : option ev :=
  let q := f_q s in
  match e with
  | EPut =>
      match pcs q with
      | PRaise _ => if is_ret (snd (cas_op (tbr q) (rel q) (f_pp s))) then Some EPut else None
      | _ => Some EPut
      end
  | EDetect r =>
      match nth_error (rdrs q) r, nth_error (f_rp s) r with
      | Some rd, Some p =>
          if r_open rd then
            if r_bad rd
            then if is_ret (snd (cas_op (tbr q) (r_tgt rd) p)) then Some (EDetect r) else None
            else Some (EDetect r)
          else None
      | _, _ => None
      end
  | _ => Some e
  end.

(** what the caller of the callback sees at a fine step: (code, amount returned
    = what the error logger reports) when the read finishes at this step *)
Definition fobs (s : fstate) (r : nat) : option (Z * Z) :=
  let q := f_q s in
  match nth_error (rdrs q) r, nth_error (f_rp s) r with
  | Some rd, Some p =>
      if r_open rd then
        if r_bad rd
        then match snd (cas_op (tbr q) (r_tgt rd) p) with CRet x => Some (13, x) | _ => None end
        else Some (0, 0)
      else None
  | _, _ => None
  end.

Definition pc_ok (tgt : Z) (p : cpc) : Prop :=
  match p with CLoad => True | CCas ov => ov < tgt | CRet _ => False end.

Record FI (s : fstate) : Prop := {
  fi_len : length (f_rp s) = length (rdrs (f_q s));
  fi_rd : forall r rd p, nth_error (rdrs (f_q s)) r = Some rd -> r_open rd = true ->
            nth_error (f_rp s) r = Some p -> pc_ok (r_tgt rd) p;
  fi_pp : match f_pp s with
          | CLoad => True
          | CCas ov => is_raise (pcs (f_q s)) = true /\ ov < rel (f_q s)
          | CRet _ => False
          end
}.

Lemma set_tbr_id st : set_tbr st (tbr st) (maxdet st) (rdrs st) = st.
Proof. destruct st; reflexivity. Qed.

Lemma upd_pc_length l : forall n p, length (upd_pc l n p) = length l.
Proof. induction l as [|x t IH]; intros [|n] p; cbn [upd_pc length]; auto. Qed.

Lemma nth_upd_pc_same l : forall n p q, nth_error (upd_pc l n p) n = Some q -> q = p.
Proof.
  induction l as [|x t IH]; intros [|n] p q H; cbn [upd_pc nth_error] in H; try discriminate.
  - injection H as <-. reflexivity.
  - eapply IH; eauto.
Qed.

Lemma nth_upd_pc_other l : forall n m p, n <> m -> nth_error (upd_pc l n p) m = nth_error l m.
Proof.
  induction l as [|x t IH]; intros [|n] [|m] p H; cbn [upd_pc nth_error]; auto; try congruence.
Qed.

Definition ostep (c : qcfg) (st : qst) (oe : option ev) : qst :=
  match oe with None => st | Some e => step c st e end.

Lemma fdetect_sim c s r : FI s ->
  f_q (fdetect s r) = ostep c (f_q s) (lin c s (EDetect r)) /\ FI (fdetect s r).
Proof.
  intros [Hl Hr Hp]. unfold fdetect, lin. cbn [ostep].
  destruct (nth_error (rdrs (f_q s)) r) as [rd|] eqn:En; [|split; [reflexivity|constructor; auto]].
  destruct (nth_error (f_rp s) r) as [p|] eqn:Ep; [|split; [reflexivity|constructor; auto]].
  destruct (r_open rd) eqn:Eo; [|split; [reflexivity|constructor; auto]].
  destruct (r_bad rd) eqn:Eb.
  - pose proof (Hr _ _ _ En Eo Ep) as Hok. rewrite cas_op_spec.
    assert (Hdet : forall t md, set_tbr (f_q s) t md (upd_rdr (rdrs (f_q s)) r) =
                     set_tbr (f_q s) (Z.max (tbr (f_q s)) (r_tgt rd)) (Z.max (maxdet (f_q s)) (r_tgt rd))
                       (upd_rdr (rdrs (f_q s)) r) ->
                   set_tbr (f_q s) t md (upd_rdr (rdrs (f_q s)) r) = step c (f_q s) (EDetect r)).
    { intros t md E. rewrite E. cbn [step]. unfold detect. rewrite En, Eo, Eb. reflexivity. }
    assert (Hrest : forall p', pc_ok (r_tgt rd) p' ->
                      FI {| f_q := set_tbr (f_q s) (tbr (f_q s)) (maxdet (f_q s)) (rdrs (f_q s));
                            f_rp := upd_pc (f_rp s) r p'; f_pp := f_pp s |}).
    { intros p' Hp'. constructor; cbn [f_q f_rp f_pp]; flds; rewrite ?upd_pc_length; auto.
      intros r0 rd0 p0 En0 Eo0 Ep0. destruct (Nat.eq_dec r r0) as [<-|Hne].
      - apply nth_upd_pc_same in Ep0. subst p0. rewrite En in En0. injection En0 as <-. exact Hp'.
      - rewrite nth_upd_pc_other in Ep0 by exact Hne. eauto. }
    assert (Hfin : forall t md p', FI {| f_q := set_tbr (f_q s) t md (upd_rdr (rdrs (f_q s)) r);
                                         f_rp := upd_pc (f_rp s) r p'; f_pp := f_pp s |}).
    { intros t md p'. constructor; cbn [f_q f_rp f_pp]; flds; rewrite ?upd_pc_length, ?upd_rdr_length; auto.
      intros r0 rd0 p0 En0 Eo0 Ep0. destruct (nth_upd_rdr_open _ _ _ _ En0 Eo0) as (En1 & Hne).
      rewrite nth_upd_pc_other in Ep0 by exact Hne. eauto. }
    destruct p as [|ov|x]; cbn [pc_ok] in Hok; [| |contradiction].
    + destruct (r_tgt rd <=? tbr (f_q s)) eqn:El; cbn [is_ret snd f_q ostep].
      * apply Z.leb_le in El. split; [|apply Hfin]. apply Hdet. f_equal; lia.
      * apply Z.leb_gt in El. rewrite set_tbr_id. split; [reflexivity|].
        rewrite <- (set_tbr_id (f_q s)) at 1. apply Hrest. cbn [pc_ok]. lia.
    + destruct (tbr (f_q s) =? ov) eqn:Ev; cbn [is_ret snd f_q ostep].
      * apply Z.eqb_eq in Ev. split; [|apply Hfin]. apply Hdet. f_equal; lia.
      * rewrite set_tbr_id. split; [reflexivity|].
        rewrite <- (set_tbr_id (f_q s)) at 1. apply Hrest. exact I.
  - cbn [f_q ostep]. split.
    + cbn [step]. unfold detect. rewrite En, Eo, Eb. reflexivity.
    + constructor; cbn [f_q f_rp f_pp]; flds; rewrite ?upd_rdr_length; auto.
      intros r0 rd0 p0 En0 Eo0 Ep0. destruct (nth_upd_rdr_open _ _ _ _ En0 Eo0) as (En1 & Hne). eauto.
Qed.

Lemma fput_sim c s : FI s ->
  f_q (fput c s) = ostep c (f_q s) (lin c s EPut) /\ FI (fput c s).
Proof.
  intros [Hl Hr Hp]. unfold fput, lin. cbn [ostep].
  destruct (pcs (f_q s)) eqn:Epc.
  all: try (cbn [f_q step]; split; [reflexivity|]; constructor; cbn [f_q f_rp f_pp];
            [rewrite (proj1 (put_step_frame c (f_q s))); exact Hl
            |rewrite (proj1 (put_step_frame c (f_q s))); exact Hr
            |destruct (f_pp s); auto; exfalso; destruct Hp as [Hp _]; cbn [is_raise] in Hp;
             try rewrite Epc in Hp; discriminate]).
  rewrite cas_op_spec.
  assert (Hstep : forall t, t = Z.max (tbr (f_q s)) (rel (f_q s)) ->
            set_pc (reset_alloc (set_tbr (f_q s) t (maxdet (f_q s)) (rdrs (f_q s)))) (PSpace sz) =
            step c (f_q s) EPut).
  { intros t ->. cbn [step]. unfold put_step. rewrite Epc. reflexivity. }
  assert (Hdone : forall t, FI {| f_q := set_pc (reset_alloc (set_tbr (f_q s) t (maxdet (f_q s)) (rdrs (f_q s)))) (PSpace sz);
                                  f_rp := f_rp s; f_pp := CLoad |}).
  { intros t. constructor; cbn [f_q f_rp f_pp]; flds; auto. }
  assert (Hstut : forall p', (match p' with
                              | CLoad => True
                              | CCas ov => ov < rel (f_q s)
                              | CRet _ => False
                              end) ->
            FI {| f_q := f_q s; f_rp := f_rp s; f_pp := p' |}).
  { intros p' Hp'. constructor; cbn [f_q f_rp f_pp]; auto. destruct p'; auto. rewrite Epc. auto. }
  destruct (f_pp s) as [|ov|x] eqn:Epp; [| |contradiction].
  - destruct (rel (f_q s) <=? tbr (f_q s)) eqn:El; cbn [is_ret snd f_q ostep].
    + apply Z.leb_le in El. split; [apply Hstep; lia|apply Hdone].
    + apply Z.leb_gt in El. rewrite set_tbr_id. split; [reflexivity|]. apply Hstut. lia.
  - destruct Hp as [_ Hov]. destruct (tbr (f_q s) =? ov) eqn:Ev; cbn [is_ret snd f_q ostep].
    + apply Z.eqb_eq in Ev. split; [apply Hstep; lia|apply Hdone].
    + rewrite set_tbr_id. split; [reflexivity|]. apply Hstut. exact I.
Qed.

Theorem fstep_sim c s e : FI s ->
  f_q (fstep c s e) = ostep c (f_q s) (lin c s e) /\ FI (fstep c s e).
Proof.
  intros HF. destruct e as [sz| | |k bad|r]; cbn [fstep].
  - split; [reflexivity|]. destruct HF as [Hl Hr Hp]. unfold start.
    destruct (pcs (f_q s)) eqn:Epc; constructor; cbn [f_q f_rp f_pp]; flds; rewrite ?Epc; auto.
    all: try (destruct (f_pp s); auto; destruct Hp as [Hp _]; cbn [is_raise] in Hp; try rewrite Epc in Hp; discriminate).
  - apply fput_sim, HF.
  - split; [reflexivity|]. destruct HF as [Hl Hr Hp]. unfold finish.
    destruct (pcs (f_q s)) eqn:Epc; constructor; cbn [f_q f_rp f_pp]; flds; rewrite ?Epc; auto.
    all: try (destruct (f_pp s); auto; destruct Hp as [Hp _]; cbn [is_raise] in Hp; try rewrite Epc in Hp; discriminate).
  - split; [reflexivity|]. destruct HF as [Hl Hr Hp].
    assert (Hfr : rdrs (open (f_q s) k bad) = rdrs (f_q s) ++
                    [if can_open (f_q s) k then {| r_tgt := rel (f_q s) + k + 1; r_bad := bad; r_open := true |}
                     else dead_rdr]
                  /\ pcs (open (f_q s) k bad) = pcs (f_q s) /\ rel (open (f_q s) k bad) = rel (f_q s)).
    { unfold open. destruct (can_open (f_q s) k); flds; auto. }
    destruct Hfr as (F1 & F2 & F3).
    constructor; cbn [f_q f_rp f_pp]; rewrite ?F1, ?F2, ?F3, ?app_length; cbn [length]; auto.
    intros r rd p En Eo Ep.
    destruct (Nat.lt_ge_cases r (length (rdrs (f_q s)))) as [Hlt|Hge].
    + rewrite nth_error_app1 in En by exact Hlt. rewrite nth_error_app1 in Ep by (rewrite Hl; exact Hlt). eauto.
    + rewrite nth_error_app2 in Ep by (rewrite Hl; exact Hge). rewrite Hl in Ep.
      destruct (r - length (rdrs (f_q s)))%nat as [|m]; cbn [nth_error] in Ep.
      * injection Ep as <-. exact I.
      * destruct m; discriminate.
  - apply fdetect_sim, HF.
Qed.

Lemma fi_init c : FI (finit c).
Proof.
  constructor; cbn [finit f_q f_rp f_pp]; auto.
  - destruct (init_of_shape c) as (o & cu & nw & E & _). cbv zeta in E. rewrite E. reflexivity.
  - intros [|r] rd p _ _ H; discriminate.
Qed.

Fixpoint ftrace (c : qcfg) (s : fstate) (es : list ev) : list fstate :=
  match es with
  | [] => []
  | e :: t => fstep c s e :: ftrace c (fstep c s e) t
  end.

Fixpoint lins (c : qcfg) (s : fstate) (es : list ev) : list (option ev) :=
  match es with
  | [] => []
  | e :: t => lin c s e :: lins c (fstep c s e) t
  end.

Fixpoint ctrace (c : qcfg) (st : qst) (oes : list (option ev)) : list qst :=
  match oes with
  | [] => []
  | oe :: t => ostep c st oe :: ctrace c (ostep c st oe) t
  end.

Fixpoint somes {A} (l : list (option A)) : list A :=
  match l with
  | [] => []
  | Some x :: t => x :: somes t
  | None :: t => somes t
  end.

Lemma trace_sim c : forall es s, FI s ->
  map f_q (ftrace c s es) = ctrace c (f_q s) (lins c s es)
  /\ f_q (frun c s es) = run_evs c (f_q s) (somes (lins c s es))
  /\ FI (frun c s es).
Proof.
  induction es as [|e t IH]; intros s HF; cbn [ftrace lins ctrace map frun fold_left somes run_evs]; [auto|].
  destruct (fstep_sim c s e HF) as (E & HF'). destruct (IH _ HF') as (A1 & A2 & A3).
  fold (frun c (fstep c s e) t). rewrite <- E. split; [f_equal; exact A1|]. split; [|exact A3].
  rewrite A2, E. destruct (lin c s e); reflexivity.
Qed.

(** EVERY fine-grained trace (any interleaving of single Loads and
    CompareAndSwaps of any number of callbacks and of the rotating Put with all
    other steps), seen through its abstract states, IS a coarse-grained trace
    whose steps are the model's atomic-maximum steps at the linearisation
    points and stutter steps elsewhere. *)
Theorem fine_refines_coarse_all c es :
  map f_q (ftrace c (finit c) es) = ctrace c (init_of c) (lins c (finit c) es)
  /\ f_q (frun c (finit c) es) = run_evs c (init_of c) (somes (lins c (finit c) es)).
Proof. destruct (trace_sim c es (finit c) (fi_init c)) as (A & B & _). split; assumption. Qed.

(** ... and what a callback's caller sees when its call returns (INTERNAL and
    the amount for the error logger) is what the coarse step reports. *)
Theorem fine_detect_obs_all c es r :
  let s := frun c (finit c) es in
  match fobs s r with
  | Some o => lin c s (EDetect r) = Some (EDetect r) /\ o = detect_obs (f_q s) r
  | None => lin c s (EDetect r) = None
  end.
Proof.
  intros s. destruct (trace_sim c es (finit c) (fi_init c)) as (_ & _ & HF). fold s in HF.
  destruct HF as [Hl Hr Hp]. unfold fobs, lin, detect_obs.
  destruct (nth_error (rdrs (f_q s)) r) as [rd|] eqn:En; [|reflexivity].
  destruct (nth_error (f_rp s) r) as [p|] eqn:Ep; [|reflexivity].
  destruct (r_open rd) eqn:Eo; [|reflexivity].
  destruct (r_bad rd) eqn:Eb; [|split; reflexivity].
  pose proof (Hr _ _ _ En Eo Ep) as Hok. rewrite cas_op_spec.
  destruct p as [|ov|x]; cbn [pc_ok] in Hok; [| |contradiction].
  - destruct (r_tgt rd <=? tbr (f_q s)) eqn:El; cbn [snd is_ret]; [|reflexivity].
    apply Z.leb_le in El. split; [reflexivity|]. f_equal. lia.
  - destruct (tbr (f_q s) =? ov) eqn:Ev; cbn [snd is_ret]; [|reflexivity].
    apply Z.eqb_eq in Ev. split; [reflexivity|]. f_equal. lia.
Qed.

(** Every state of the fine-grained system is a reachable state of the coarse
    model: the invariants of Store/QuarantineProofs.v hold of it. *)
Corollary fine_state_inv c es : wf0 c -> Inv (f_q (frun c (finit c) es)).
Proof. intros Hq. rewrite (proj2 (fine_refines_coarse_all c es)). apply inv_reach, Hq. Qed.
