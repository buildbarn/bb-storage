(** C10 — the monitor [mon10] (Run/R10.v = C01's clauses 1-3 + clause 4) on
    runs of the hierarchical store model: clause 2 (provenance) and clause 4
    (readable under every descendant) never fire. *)
From Coq Require Import List NArith ZArith Bool Arith Lia ZifyN ZifyNat ZifyBool.
From BBS Require Import Common.Sx Store.Model Store.Basics Store.P08Frame Store.P08Step Store.P08Quarantine Store.P08Monitor
  Store.P10Inv Store.P10Visible Run.RStore Run.R01 Run.R10.
Import ListNotations.
Open Scope Z_scope.

#[local] Arguments completed : simpl never.
#[local] Arguments step : simpl never.
#[local] Arguments enc_obs : simpl never.

Definition m01_init : m01 :=
  {| m_puts := []; m_gets := []; m_gfcs := []; m_uploaded := []; m_corrupted := false; m_viol := [] |}.
Definition m10_init : m10 := {| h_puts := []; h_ups := []; h_viol := [] |}.

Definition mon01_raw (w : world) (es : list op) : list Z :=
  m_viol (mon01_run w m01_init es (model_obs w es (run_states w (init_state (w_cfg w)) es))).
Definition mon01_model (w : world) (es : list op) : list Z := dedupZ (mon01_raw w es).
Definition mon10_clause4 (w : world) (es : list op) : list Z :=
  let sts := run_states w (init_state (w_cfg w)) es in
  h_viol (fold_left (m10_step w) (combine (combine es sts) (model_obs w es sts)) m10_init).
Definition mon10_model (w : world) (es : list op) : list Z :=
  dedupZ (mon01_model w es ++ (if c_hier (w_cfg w) then mon10_clause4 w es else [])).

Lemma mon01_model_eq inp : mon01 inp (run_store inp) = mon01_model (dec_world inp) (dec_ops inp).
Proof. reflexivity. Qed.
Lemma mon10_model_eq inp : mon10 inp (run_store inp) = mon10_model (dec_world inp) (dec_ops inp).
Proof. reflexivity. Qed.

Lemma assoc_unassoc_other {V} (l : list (nat * V)) k k' : k' <> k -> assoc (unassoc l k) k' = assoc l k'.
Proof.
  intros Hne. unfold unassoc. induction l as [|[a v] t IH]; cbn; [reflexivity|].
  destruct (Nat.eqb a k) eqn:E; cbn.
  - apply Nat.eqb_eq in E; subst. destruct (Nat.eqb k' k) eqn:E'; [apply Nat.eqb_eq in E'; congruence|exact IH].
  - rewrite IH. reflexivity.
Qed.
Lemma assoc_unassoc_same {V} (l : list (nat * V)) k : assoc (unassoc l k) k = None.
Proof.
  unfold unassoc. induction l as [|[a v] t IH]; cbn; [reflexivity|].
  destruct (Nat.eqb a k) eqn:E; cbn; [exact IH|].
  rewrite Nat.eqb_sym, E. exact IH.
Qed.
Lemma assoc_unassoc_some {V} (l : list (nat * V)) k k' v :
  assoc (unassoc l k) k' = Some v -> k' <> k /\ assoc l k' = Some v.
Proof.
  destruct (Nat.eq_dec k' k) as [->|Hne]; [rewrite assoc_unassoc_same; discriminate|].
  rewrite assoc_unassoc_other by assumption. auto.
Qed.

Definition puts_ok (puts : list (nat * (nat * nat))) (s : state) : Prop :=
  forall tid oi, put_of (T s tid) = Some oi -> assoc puts tid = Some oi.

Definition puts_upd (puts : list (nat * (nat * nat))) (e : op) (out : out) : list (nat * (nat * nat)) :=
  match e, out with
  | OPutStart tid ob i, Parked => (tid, (ob, i)) :: puts
  | OPutChunk tid _, Done _ _ | OPutEnd tid _, Done _ _ =>
      match assoc puts tid with Some _ => unassoc puts tid | None => puts end
  | _, _ => puts
  end.

Lemma puts_ok_rm puts puts' s s1 tid : s_threads s1 = s_threads s ->
  (forall t oi, t <> tid -> assoc puts t = Some oi -> assoc puts' t = Some oi) ->
  puts_ok puts s -> puts_ok puts' (thr_rm s1 tid).
Proof.
  intros E Ha Hp tid' oi H. destruct (Nat.eq_dec tid' tid) as [->|Hne]; [rewrite T_rm_same in H; discriminate|].
  rewrite (T_rm_other s) in H by assumption. apply Ha, Hp, H. exact Hne.
Qed.

Lemma puts_ok_step w s e s' out puts :
  shape w s e s' out -> puts_ok puts s -> puts_ok (puts_upd puts e out) s'.
Proof.
  intros Sh Hp. destruct out as [c b| |c ds|]; cbn in Sh.
  - destruct e as [tid ob i|tid data|tid err|tid ob i|tid|ds|tid p i ch|tid slices|rg off len];
      cbn [puts_upd]; try contradiction;
      try (intros tid' oi H; rewrite (T_same _ _ _ Sh) in H; apply Hp, H).
    all: destruct Sh as (s1 & E1 & -> & _); apply (puts_ok_rm puts _ s); [exact E1| |exact Hp];
      intros t oi Hne H; try exact H.
    all: destruct (assoc puts tid); [rewrite assoc_unassoc_other by assumption|]; exact H.
  - destruct Sh as (tid & t & s1 & Ho & E1 & -> & F).
    destruct e as [tid0 ob i|tid0 data|tid0 err|tid0 ob i|tid0|ds|tid0 p i ch|tid0 slices|rg off len];
      cbn in Ho; inv Ho; try contradiction; cbn [puts_upd]; intros tid' oi H.
    + destruct F as [Hn Hpo]. cbn [assoc].
      destruct (Nat.eqb_spec tid' tid) as [->|Hne].
      * rewrite T_set_same in H. cbn in H. rewrite Hpo in H. exact H.
      * rewrite (T_set_other s) in H by assumption. apply Hp, H.
    + destruct F as [Hn Hpo].
      destruct (Nat.eq_dec tid' tid) as [->|Hne].
      * rewrite T_set_same in H. cbn in H. rewrite Hpo in H. apply Hp, H.
      * rewrite (T_set_other s) in H by assumption. apply Hp, H.
    + destruct F as (Hn & _ & Hg).
      destruct (Nat.eq_dec tid' tid) as [->|Hne].
      * rewrite T_set_same in H. destruct t; cbn in Hg; try contradiction. discriminate.
      * rewrite (T_set_other s) in H by assumption. apply Hp, H.
    + destruct F as (Hn & Hg).
      destruct (Nat.eq_dec tid' tid) as [->|Hne].
      * rewrite T_set_same in H. destruct Hg as [[_ Hg]|[c ->]]; [|discriminate].
        destruct t; cbn in Hg; try contradiction. discriminate.
      * rewrite (T_set_other s) in H by assumption. apply Hp, H.
  - destruct Sh as [E1 [ds' ->]]. cbn. intros tid' oi H. rewrite (T_same _ _ _ E1) in H. apply Hp, H.
  - subst s'. destruct e; exact Hp.
Qed.

Lemma visible_intro w up o i j : c_hier (w_cfg w) = true ->
  In (o, i) up -> In i (ancestors w j) -> visible w up o j = true.
Proof.
  intros Hh H1 H2. unfold visible. rewrite Hh. apply existsb_exists. exists (o, i). split; [assumption|].
  rewrite Nat.eqb_refl. cbn. apply existsb_exists. exists i. split; [assumption|apply Nat.eqb_refl].
Qed.
Lemma visible_incl w up up' o j : incl up up' -> visible w up o j = true -> visible w up' o j = true.
Proof.
  unfold visible. intros Hi H. apply existsb_exists in H as (x & Hx & Hc). apply existsb_exists. exists x. auto.
Qed.
Lemma resolves_visible w s up o j : c_hier (w_cfg w) = true ->
  (forall o i, has_entry s (o, S i) -> In (o, i) up) -> resolves w s o j -> visible w up o j = true.
Proof.
  intros Hh Hu (k & l & Hk & Hg). destruct (lookup_key_hier _ _ _ _ Hh Hk) as (a & -> & Ha).
  apply (visible_intro w up o a j Hh); [|assumption]. apply Hu. apply index_get_some in Hg as [Hg _]. exists l. assumption.
Qed.

Record inv01 (w : world) (m : m01) (s : state) : Prop := {
  i_hinv : hinv s;
  i_puts : puts_ok (m_puts m) s;
  i_up : forall o i, has_entry s (o, S i) -> In (o, i) (m_uploaded m);
  i_gets : forall tid ob i, assoc (m_gets m) tid = Some (ob, i) -> visible w (m_uploaded m) ob i = true;
  i_gfcs : forall tid p i ch, assoc (m_gfcs m) tid = Some (p, i, ch) ->
             visible w (m_uploaded m) p i = true \/ exists c, T s tid = Some (TGfcErr c);
  i_viol : ~ In 2 (m_viol m);
}.

(** an error-buffer thread stays until it is sliced *)
Lemma err_thread_persist w s e s' out tid c : shape w s e s' out -> T s tid = Some (TGfcErr c) ->
  T s' tid = Some (TGfcErr c) \/ exists sl c' b, e = OGfcSlice tid sl /\ out = Done c' b.
Proof.
  intros Sh Ht. destruct out as [c' b| |c' ds|]; cbn in Sh.
  - destruct e as [tid0 ob i|tid0 data|tid0 err|tid0 ob i|tid0|ds|tid0 p i ch|tid0 slices|rg off len];
      try contradiction; try (left; rewrite (T_same _ _ _ Sh); assumption).
    + destruct Sh as (s1 & E1 & -> & Hp & _). destruct (Nat.eq_dec tid tid0) as [->|Hne].
      * unfold T in *. rewrite Ht in Hp. exfalso. apply Hp. reflexivity.
      * left. rewrite (T_rm_other s); assumption.
    + destruct Sh as (s1 & E1 & -> & oi & Hp & _). destruct (Nat.eq_dec tid tid0) as [->|Hne].
      * unfold T in *. rewrite Ht in Hp. discriminate.
      * left. rewrite (T_rm_other s); assumption.
    + destruct Sh as (s1 & E1 & -> & Hg). destruct (Nat.eq_dec tid tid0) as [->|Hne].
      * unfold T in *. rewrite Ht in Hg. destruct Hg.
      * left. rewrite (T_rm_other s); assumption.
    + destruct (Nat.eq_dec tid tid0) as [->|Hne]; [right; eauto|].
      destruct Sh as (s1 & E1 & -> & _). left. rewrite (T_rm_other s); assumption.
  - destruct Sh as (tid0 & t & s1 & Ho & E1 & -> & F). left.
    destruct (Nat.eq_dec tid tid0) as [->|Hne]; [|rewrite (T_set_other s); assumption].
    exfalso.
    destruct e as [tid1 ob i|tid1 data|tid1 err|tid1 ob i|tid1|ds|tid1 p i ch|tid1 slices|rg off len];
      cbn in Ho; inv Ho; try contradiction; unfold T in *; rewrite Ht in F.
    + destruct F; discriminate.
    + destruct F as [F _]. apply F. reflexivity.
    + destruct F; discriminate.
    + destruct F; discriminate.
  - destruct Sh as [E1 _]. left. rewrite (T_same _ _ _ E1). assumption.
  - subst. left. assumption.
Qed.

Lemma completed_only_put_end_ok w s e s' out oi : step w s e = (s', out) -> In oi (completed w s e) ->
  exists tid err b, e = OPutEnd tid err /\ out = Done 0 b.
Proof.
  intros Hs H. destruct oi as [o i]. apply completed_spec in H as (tid & err & b & -> & Ho & _).
  rewrite Hs in Ho. cbn in Ho. eauto.
Qed.

Lemma inv01_update w m m' s e s' out : c_hier (w_cfg w) = true -> inv01 w m s -> step w s e = (s', out) ->
  m_puts m' = puts_upd (m_puts m) e out ->
  incl (m_uploaded m) (m_uploaded m') ->
  (forall oi, In oi (completed w s e) -> In oi (m_uploaded m')) ->
  (forall tid ob i, assoc (m_gets m') tid = Some (ob, i) ->
     assoc (m_gets m) tid = Some (ob, i) \/ visible w (m_uploaded m') ob i = true) ->
  (forall tid p i ch, assoc (m_gfcs m') tid = Some (p, i, ch) ->
     (assoc (m_gfcs m) tid = Some (p, i, ch) /\ ~ (exists sl c b, e = OGfcSlice tid sl /\ out = Done c b)) \/
     visible w (m_uploaded m') p i = true \/ exists c, T s' tid = Some (TGfcErr c)) ->
  ~ In 2 (m_viol m') ->
  inv01 w m' s'.
Proof.
  intros Hh [Hi Hp Hu Hg Hf Hv] Hs Ep Hinc Hcomp Hg' Hf' Hv'.
  pose proof (step_shape _ _ _ _ _ Hh Hi Hs) as Sh.
  destruct (step_hier _ _ _ _ _ Hh Hi Hs) as [Hi' Hent].
  constructor.
  - assumption.
  - rewrite Ep. eapply puts_ok_step; eassumption.
  - intros o i H. apply Hent in H as [[H|H]|(o' & i' & Ek & H)]; [discriminate| |].
    + apply Hinc, Hu, H.
    + inv Ek. apply Hcomp, H.
  - intros tid ob i H. apply Hg' in H as [H|H]; [|assumption]. eapply visible_incl; [exact Hinc|]. eapply Hg, H.
  - intros tid p i ch H. apply Hf' in H as [[H Hn]|H]; [|assumption].
    apply Hf in H as [H|[c H]]; [left; eapply visible_incl; [exact Hinc|exact H]|].
    destruct (err_thread_persist _ _ _ _ _ _ _ Sh H) as [H'|H']; [right; eauto|exfalso; apply Hn; exact H'].
  - assumption.
Qed.

Lemma add3_inv w m s (b : bool) : inv01 w m s -> inv01 w (if b then add_viol m [3] else m) s.
Proof.
  intros []. destruct b; [|constructor; assumption]. constructor; cbn; try assumption.
  rewrite in_app_iff. intros [H|[H|[]]]; [auto|discriminate].
Qed.

Ltac upd_same Hs :=
  first [ reflexivity
        | apply incl_refl
        | (let H := fresh in let E := fresh in let E' := fresh in
           intros ? H; destruct (completed_only_put_end_ok _ _ _ _ _ _ Hs H) as (? & ? & ? & E & E'); discriminate)
        | (let H := fresh in intros ? ? ? H; left; exact H)
        | (let H := fresh in let E := fresh in
           intros ? ? ? ? H; left; split; [exact H|intros (? & ? & ? & E & _); discriminate]) ].

Lemma not_in2_app v c : ~ In 2 v -> ~ In 2 c -> ~ In 2 (v ++ c).
Proof. intros H1 H2 H. apply in_app_or in H as []; auto. Qed.
Lemma not_in2_c1 (b : bool) : ~ In 2 ((if b then [1] else []) ++ []).
Proof. destruct b; cbn; intuition discriminate. Qed.

Lemma inv01_step w m s e s' out : c_hier (w_cfg w) = true -> inv01 w m s -> step w s e = (s', out) ->
  inv01 w (mon01_step w m e (enc_obs (w_cfg w) e s s' out)) s'.
Proof.
  intros Hh Hinv Hs.
  pose proof (ob_kind_enc (w_cfg w) e s s' out) as Hk.
  pose proof (ob_code_enc (w_cfg w) e s s' out) as Hc.
  remember (enc_obs (w_cfg w) e s s' out) as o eqn:Eo.
  pose proof (step_shape _ _ _ _ _ Hh (i_hinv _ _ _ Hinv) Hs) as Sh.
  destruct e as [tid ob i|tid data|tid err|tid ob i|tid|ds|tid p i ch|tid slices|rg off len];
    unfold mon01_step;
    match goal with |- context [if ?b then add_viol m [3] else m] =>
      pose proof (add3_inv w m s b Hinv) as Hinv3; set (m3 := if b then add_viol m [3] else m) in * end;
    clearbody m3; clear Hinv m; rename m3 into m.
  - (* OPutStart *)
    destruct out as [c b| |c ds|]; rewrite Hk; cbn [Z.eqb Pos.eqb];
      (eapply inv01_update; [exact Hh|exact Hinv3|exact Hs|..]; cbn [m_puts m_gets m_gfcs m_uploaded m_viol puts_upd];
       try upd_same Hs; apply (i_viol _ _ _ Hinv3)).
  - (* OPutChunk *)
    destruct out as [c b| |c ds|]; rewrite Hk; cbn [Z.eqb Pos.eqb];
      try (eapply inv01_update; [exact Hh|exact Hinv3|exact Hs|..]; cbn [m_puts m_gets m_gfcs m_uploaded m_viol puts_upd];
           try upd_same Hs; apply (i_viol _ _ _ Hinv3)).
    destruct (assoc (m_puts m) tid) as [oi|] eqn:Ea;
      (eapply inv01_update; [exact Hh|exact Hinv3|exact Hs|..]; cbn [m_puts m_gets m_gfcs m_uploaded m_viol puts_upd];
       try rewrite Ea; try upd_same Hs; try apply (i_viol _ _ _ Hinv3)).
    destruct (ob_ok o); [apply incl_tl|]; apply incl_refl.
  - (* OPutEnd *)
    destruct out as [c b| |c ds|]; rewrite Hk; cbn [Z.eqb Pos.eqb];
      try (eapply inv01_update; [exact Hh|exact Hinv3|exact Hs|..]; cbn [m_puts m_gets m_gfcs m_uploaded m_viol puts_upd];
           try upd_same Hs; apply (i_viol _ _ _ Hinv3)).
    cbn in Sh. destruct Sh as (s1 & E1 & -> & oi' & Hpo & Hcomp).
    pose proof (i_puts _ _ _ Hinv3 _ _ Hpo) as Ea. rewrite Ea.
    eapply inv01_update; [exact Hh|exact Hinv3|exact Hs|..]; cbn [m_puts m_gets m_gfcs m_uploaded m_viol puts_upd];
      try rewrite Ea; try upd_same Hs; try apply (i_viol _ _ _ Hinv3).
    + destruct (ob_ok o); [apply incl_tl|]; apply incl_refl.
    + intros oi H. destruct (completed_only_put_end_ok _ _ _ _ _ _ Hs H) as (? & ? & b' & _ & E'). inv E'.
      rewrite (Hcomp eq_refl) in H. destruct H as [<-|[]].
      unfold ob_ok. rewrite Hk, Hc. left. reflexivity.
  - (* OGetOpen *)
    destruct out as [c b| |c ds|]; rewrite Hk; cbn [Z.eqb Pos.eqb];
      (eapply inv01_update; [exact Hh|exact Hinv3|exact Hs|..]; cbn [m_puts m_gets m_gfcs m_uploaded m_viol puts_upd];
       try upd_same Hs; try apply (i_viol _ _ _ Hinv3)).
    cbn in Sh. destruct Sh as (tid0 & t & s1 & Ho & E1 & -> & Hn & Hr & _). inv Ho.
    intros tid' ob' i' H. cbn [assoc] in H. destruct (Nat.eqb tid' tid0); [|left; exact H].
    inv H. right. eapply resolves_visible; [exact Hh|apply (i_up _ _ _ Hinv3)|exact Hr].
  - (* OGetConsume *)
    destruct (assoc (m_gets m) tid) as [[ob i]|] eqn:Ea.
    2:{ eapply inv01_update; [exact Hh|exact Hinv3|exact Hs|..]; try upd_same Hs; try apply (i_viol _ _ _ Hinv3).
        all: try (destruct out; reflexivity). }
    assert (forall v, ~ In 2 v ->
      inv01 w {| m_puts := m_puts m; m_gets := unassoc (m_gets m) tid; m_gfcs := m_gfcs m;
                 m_uploaded := m_uploaded m; m_corrupted := m_corrupted m; m_viol := v |} s') as Hm'.
    { intros v Hv. eapply inv01_update; [exact Hh|exact Hinv3|exact Hs|..]; cbn [m_puts m_gets m_gfcs m_uploaded m_viol];
        try upd_same Hs; try exact Hv.
      - intros tid' ob' i' H. apply assoc_unassoc_some in H as [_ H]. left. exact H. }
    destruct (ob_ok o); [|apply Hm', (i_viol _ _ _ Hinv3)].
    unfold add_viol. cbn [m_puts m_gets m_gfcs m_uploaded m_corrupted m_viol]. apply Hm'.
    apply not_in2_app; [apply (i_viol _ _ _ Hinv3)|]. unfold check_read.
    rewrite (i_gets _ _ _ Hinv3 _ _ _ Ea). apply not_in2_c1.
  - (* OFindMissing *)
    destruct out as [c b| |c m0|]; rewrite Hk; cbn [Z.eqb Pos.eqb andb];
      try (eapply inv01_update; [exact Hh|exact Hinv3|exact Hs|..]; try upd_same Hs; apply (i_viol _ _ _ Hinv3)).
    rewrite Hc. destruct (Z.eqb_spec c 0) as [->|Hne];
      [|eapply inv01_update; [exact Hh|exact Hinv3|exact Hs|..]; try upd_same Hs; apply (i_viol _ _ _ Hinv3)].
    match goal with |- context [if ?b then m else add_viol m [2]] => assert (b = true) as -> end.
    2:{ eapply inv01_update; [exact Hh|exact Hinv3|exact Hs|..]; try upd_same Hs; apply (i_viol _ _ _ Hinv3). }
    apply forallb_forall. intros [pos [ob i]] Hin. apply filter_In in Hin as [Hin Hnm].
    rewrite Eo, missing_enc in Hnm.
    apply enumerate_in in Hin as [_ Hn]. rewrite Nat.sub_0_r in Hn.
    assert (~ In pos m0) as Hm.
    { intros Hm. apply negb_true_iff, not_true_iff_false in Hnm. apply Hnm.
      apply existsb_exists. exists pos. split; [assumption|apply Nat.eqb_refl]. }
    destruct (find_missing_present_step _ _ _ _ _ _ _ _ Hs Hn Hm) as (k & l & Hk' & Hg & _).
    eapply resolves_visible; [exact Hh|apply (i_up _ _ _ Hinv3)|exists k, l; auto].
  - (* OGfcStart *)
    destruct out as [c b| |c ds|]; rewrite Hk; cbn [Z.eqb Pos.eqb]; try (cbn in Sh; contradiction);
      try (unfold ob_ok; rewrite Hk; cbn [Z.eqb Pos.eqb andb]);
      (eapply inv01_update; [exact Hh|exact Hinv3|exact Hs|..]; cbn [m_puts m_gets m_gfcs m_uploaded m_viol puts_upd];
       try upd_same Hs; try apply (i_viol _ _ _ Hinv3)).
    cbn in Sh. destruct Sh as (tid0 & t & s1 & Ho & E1 & -> & Hn & Hr). inv Ho.
    intros tid' p' i' ch' H. cbn [assoc] in H. destruct (Nat.eqb_spec tid' tid0) as [->|Hne].
    2:{ left. split; [exact H|intros (? & ? & ? & E & _); discriminate]. }
    inv H. right. destruct Hr as [[Hr _]|[c ->]].
    + left. eapply resolves_visible; [exact Hh|apply (i_up _ _ _ Hinv3)|exact Hr].
    + right. exists c. apply T_set_same.
  - (* OGfcSlice *)
    destruct (assoc (m_gfcs m) tid) as [[[p i] ch]|] eqn:Ea.
    2:{ eapply inv01_update; [exact Hh|exact Hinv3|exact Hs|..]; try upd_same Hs; try apply (i_viol _ _ _ Hinv3).
          - intros tid' p' i' ch' H. left. split; [exact H|]. intros (sl & c & b & E & _). inv E. congruence. }
    assert (forall v, ~ In 2 v ->
      inv01 w {| m_puts := m_puts m; m_gets := m_gets m; m_gfcs := unassoc (m_gfcs m) tid;
                 m_uploaded := m_uploaded m; m_corrupted := m_corrupted m; m_viol := v |} s') as Hm'.
    { intros v Hv. eapply inv01_update; [exact Hh|exact Hinv3|exact Hs|..]; cbn [m_puts m_gets m_gfcs m_uploaded m_viol];
        try upd_same Hs; try exact Hv.
      - intros tid' p' i' ch' H. apply assoc_unassoc_some in H as [Hne H]. left. split; [exact H|].
        intros (sl & c & b & E & _). inv E. congruence. }
    destruct (ob_ok o) eqn:Eok; [|apply Hm', (i_viol _ _ _ Hinv3)].
    unfold add_viol. cbn [m_puts m_gets m_gfcs m_uploaded m_corrupted m_viol]. rewrite Hh. cbn [app]. apply Hm'.
    apply not_in2_app; [apply (i_viol _ _ _ Hinv3)|].
    assert (visible w (m_uploaded m) p i = true) as ->; [|apply not_in2_c1].
    unfold ob_ok in Eok. rewrite Hk, Hc in Eok. destruct out as [c b| |c ds|]; try discriminate.
    cbn [Z.eqb Pos.eqb andb] in Eok. apply Z.eqb_eq in Eok. subst c.
    cbn in Sh. destruct Sh as (s1 & E1 & -> & Hsh).
    destruct (i_gfcs _ _ _ Hinv3 _ _ _ _ Ea) as [Hv|[c Hc']]; [exact Hv|].
    rewrite Hc' in Hsh. destruct Hsh as [[]|[_ Hne]]. exfalso. apply Hne. first [reflexivity|assumption].
  - (* OCorrupt *)
    eapply inv01_update; [exact Hh|exact Hinv3|exact Hs|..]; try upd_same Hs; try apply (i_viol _ _ _ Hinv3).
    all: try (destruct out; reflexivity).
Qed.

Lemma inv01_init w : inv01 w m01_init (init_state (w_cfg w)).
Proof.
  constructor.
  - apply hinv_init.
  - intros tid oi H. cbn in H. discriminate.
  - intros o i H. exfalso. eapply no_entry_init, H.
  - intros tid ob i H. cbn in H. discriminate.
  - intros tid p i ch H. cbn in H. discriminate.
  - cbn. intros [].
Qed.

Lemma mon01_run_inv w es : c_hier (w_cfg w) = true -> forall m s, inv01 w m s ->
  ~ In 2 (m_viol (mon01_run w m es (model_obs w es (run_states w s es)))).
Proof.
  intros Hh. unfold model_obs. induction es as [|e t IH]; intros m s Hinv; cbn [run_states].
  - cbn. apply (i_viol _ _ _ Hinv).
  - destruct (step w s e) as [s1 out] eqn:E. cbn [combine map mon01_run].
    apply IH. apply inv01_step; assumption.
Qed.

(** clause 2 never fires on hierarchical model runs *)
Lemma mon01_no_clause2 w es : c_hier (w_cfg w) = true -> ~ In 2 (mon01_raw w es).
Proof. intros Hh. apply mon01_run_inv; [assumption|apply inv01_init]. Qed.

Definition ups_ok (s : state) (x : (nat * nat) * (N * N)) : Prop :=
  let '((o, i), (r, t)) := x in
  (t <= s_tbr s)%N /\ exists l, In ((o, S i), l) (s_index s) /\ (t <= l_abs l)%N /\ (l_abs l < hiM s)%N.

Lemma ups_ok_mono n s s' x : sfr n s s' -> ups_ok s x -> ups_ok s' x.
Proof.
  intros [[nw E] _ Ht _ Hh]. destruct x as [[o i] [r t]]. cbn. intros (H1 & l & H2 & H3 & H4).
  split; [exact (N.le_trans _ _ _ H1 Ht)|]. exists l. split; [rewrite E; apply in_or_app; right; assumption|].
  split; [exact H3|exact (N.lt_le_trans _ _ _ H4 Hh)].
Qed.

Record inv10 (w : world) (m : m10) (s : state) : Prop := {
  j_hinv : hinv s;
  j_puts : puts_ok (h_puts m) s;
  j_ups : forall x, In x (h_ups m) -> ups_ok s x;
  j_viol : h_viol m = [];
}.

Lemma step_sfr_ex w s e s' out : step w s e = (s', out) -> exists n, sfr n s s'.
Proof. intros H. apply step_sfr in H as [H|[H _]]; eauto. Qed.

Lemma inv10_update w m m' s e s' out : c_hier (w_cfg w) = true -> inv10 w m s -> step w s e = (s', out) ->
  h_puts m' = puts_upd (h_puts m) e out ->
  (forall x, In x (h_ups m') -> In x (h_ups m) \/ ups_ok s' x) ->
  h_viol m' = [] ->
  inv10 w m' s'.
Proof.
  intros Hh [Hi Hp Hu Hv] Hs Ep Hu' Hv'.
  pose proof (step_shape _ _ _ _ _ Hh Hi Hs) as Sh.
  destruct (step_hier _ _ _ _ _ Hh Hi Hs) as [Hi' _].
  destruct (step_sfr_ex _ _ _ _ _ Hs) as [n Hn].
  constructor; try assumption.
  - rewrite Ep. eapply puts_ok_step; eassumption.
  - intros x Hx. apply Hu' in Hx as [Hx|Hx]; [|assumption]. eapply ups_ok_mono; [exact Hn|]. apply Hu, Hx.
Qed.

Ltac upd10 Hh Hinv Hs :=
  eapply inv10_update; [exact Hh|exact Hinv|exact Hs|..]; cbn [h_puts h_ups h_viol puts_upd];
  [try reflexivity; try (destruct out; reflexivity)
  |try (let x := fresh in let Hx := fresh in intros x Hx; left; exact Hx)
  |try apply (j_viol _ _ _ Hinv)].

Lemma inv10_step w m s e s' out : c_hier (w_cfg w) = true -> inv10 w m s -> step w s e = (s', out) ->
  inv10 w (m10_step w m (e, (s, s', out), enc_obs (w_cfg w) e s s' out)) s'.
Proof.
  intros Hh Hinv Hs. unfold m10_step.
  pose proof (ob_kind_enc (w_cfg w) e s s' out) as Hk.
  pose proof (ob_code_enc (w_cfg w) e s s' out) as Hc.
  remember (enc_obs (w_cfg w) e s s' out) as o eqn:Eo.
  pose proof (step_shape _ _ _ _ _ Hh (j_hinv _ _ _ Hinv) Hs) as Sh.
  destruct e as [tid ob i|tid data|tid err|tid ob i|tid|ds|tid p i ch|tid slices|rg off len];
    try solve [upd10 Hh Hinv Hs].
  - (* OPutStart *)
    destruct out as [c b| |c ds|]; rewrite Hk; cbn [Z.eqb Pos.eqb]; upd10 Hh Hinv Hs.
  - (* OPutChunk *)
    destruct out as [c b| |c ds|]; rewrite Hk; cbn [Z.eqb Pos.eqb]; try solve [upd10 Hh Hinv Hs].
    cbn in Sh. destruct Sh as (s1 & E1 & -> & Hpo & Hne).
    destruct (assoc (h_puts m) tid) as [oi|] eqn:Ea; [|upd10 Hh Hinv Hs; rewrite Ea; reflexivity].
    unfold ob_ok. rewrite Hk, Hc. destruct (Z.eqb_spec c 0); [contradiction|]. cbn [Z.eqb andb].
    upd10 Hh Hinv Hs. rewrite Ea. reflexivity.
  - (* OPutEnd *)
    destruct out as [c b| |c ds|]; rewrite Hk; cbn [Z.eqb Pos.eqb]; try solve [upd10 Hh Hinv Hs].
    cbn in Sh. destruct Sh as (s1 & E1 & Es' & oi' & Hpo & Hcomp).
    pose proof (j_puts _ _ _ Hinv _ _ Hpo) as Ea. rewrite Ea.
    unfold ob_ok. rewrite Hk, Hc. cbn [Z.eqb andb].
    destruct (Z.eqb_spec c 0) as [->|Hne].
    + upd10 Hh Hinv Hs; [rewrite Ea; reflexivity|].
      intros x [<-|Hx]; [right|left; exact Hx].
      destruct oi' as [o' i'].
      destruct (upload_entry_valid _ _ _ _ _ o' i' Hh (j_hinv _ _ _ Hinv) Hs) as (l & Hin & Hq & Hhi).
      { rewrite (Hcomp eq_refl). left. reflexivity. }
      cbn. split; [apply N.le_refl|]. exists l. auto.
    + upd10 Hh Hinv Hs. rewrite Ea. reflexivity.
  - (* OGetOpen *)
    match goal with |- context [if ?b then _ else m] => assert (b = false) as -> end; [|upd10 Hh Hinv Hs].
    rewrite Hk, Hc. destruct out as [c b| |c ds|]; try reflexivity. cbn [Z.eqb andb].
    destruct (Z.eqb_spec c cNotFound) as [->|Hne]; [|reflexivity]. cbn [andb].
    apply not_true_iff_false. intros Hex. apply existsb_exists in Hex as ([[ob' i'] [r t]] & Hx & Hcnd).
    apply andb_true_iff in Hcnd as [Hcnd Ht]. apply andb_true_iff in Hcnd as [Hcnd Hr].
    apply andb_true_iff in Hcnd as [Hob Hanc]. apply Nat.eqb_eq in Hob. subst ob'.
    apply existsb_exists in Hanc as (a & Ha & Hai). apply Nat.eqb_eq in Hai. subst a.
    apply N.eqb_eq in Ht.
    destruct (j_ups _ _ _ Hinv _ Hx) as (Ht1 & l & Hin & Hl1 & Hl2).
    destruct (step_sfr_ex _ _ _ _ _ Hs) as [n [_ _ Htm _ _]].
    eapply (get_open_found w s tid ob i i' l); try eassumption; [|reflexivity].
    unfold loc_valid. unfold hiM in Hl2. clear - Ht Ht1 Htm Hl1 Hl2. lia.
Qed.

Lemma inv10_init w : inv10 w m10_init (init_state (w_cfg w)).
Proof.
  constructor.
  - apply hinv_init.
  - intros tid oi H. cbn in H. discriminate.
  - intros x [].
  - reflexivity.
Qed.

Lemma m10_fold_inv w es : c_hier (w_cfg w) = true -> forall m s, inv10 w m s ->
  h_viol (fold_left (m10_step w)
            (combine (combine es (run_states w s es)) (model_obs w es (run_states w s es))) m) = [].
Proof.
  intros Hh. unfold model_obs. induction es as [|e t IH]; intros m s Hinv; cbn [run_states].
  - cbn. apply (j_viol _ _ _ Hinv).
  - destruct (step w s e) as [s1 out] eqn:E. cbn [combine map fold_left].
    apply IH. apply inv10_step; assumption.
Qed.

(** clause 4 never fires on hierarchical model runs *)
Lemma mon10_no_clause4 w es : c_hier (w_cfg w) = true -> mon10_clause4 w es = [].
Proof. intros Hh. apply m10_fold_inv; [assumption|apply inv10_init]. Qed.

Lemma dedupZ_in x l : In x (dedupZ l) -> In x l.
Proof.
  induction l as [|a t IH]; cbn; [auto|].
  destruct (existsb (Z.eqb a) t); [auto|]. intros [H|H]; auto.
Qed.
Lemma dedupZ_nil l : dedupZ l = [] -> l = [].
Proof.
  induction l as [|a t IH]; cbn; [reflexivity|].
  destruct (existsb (Z.eqb a) t) eqn:E; [|discriminate].
  intros H. apply IH in H. subst. discriminate.
Qed.

(** on hierarchical stores everything mon10 reports is a report of C01's
    monitor other than clause 2: provenance (2) never fires and the fold of
    clause 4 (readability) is silent *)
Theorem mon10_model_only_data_clauses w es : c_hier (w_cfg w) = true ->
  mon10_clause4 w es = [] /\
  forall v, In v (mon10_model w es) -> v <> 2 /\ In v (mon01_model w es).
Proof.
  intros Hh. split; [apply mon10_no_clause4, Hh|]. intros v Hv.
  unfold mon10_model in Hv. apply dedupZ_in in Hv.
  rewrite Hh, (mon10_no_clause4 w es Hh), app_nil_r in Hv.
  split; [|assumption].
  intros ->. apply dedupZ_in in Hv. eapply mon01_no_clause2; eassumption.
Qed.

(** given C01's statement (clauses 1 and 3 silent), the C10 monitor is silent *)
Theorem store_model_satisfies_C10_given_C01 w es : c_hier (w_cfg w) = true ->
  mon01_model w es = [] -> mon10_model w es = [].
Proof.
  intros Hh H01. unfold mon10_model. rewrite Hh, (mon10_no_clause4 w es Hh), H01. reflexivity.
Qed.
