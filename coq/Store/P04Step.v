(** C04 proofs: the composite operations (open with refresh, Get,
    FindMissing, Put) preserve the allocator invariant; the global invariant;
    every operation of [step] preserves it. *)
From Coq Require Import List NArith ZArith Bool Arith Lia Permutation.
From Coq Require Import ZifyN ZifyNat ZifyBool.
From BBS Require Import Store.Model Store.Wf Store.P04Base Store.P04Prim Store.P04Fbs.
Import ListNotations.
Local Open Scope nat_scope.

Lemma index_get_valid s k l : index_get s k = Some l -> loc_valid s l = true.
Proof. intros H. exact (proj2 (index_get_sound s k l H)). Qed.

Lemma least_specific_get s ks k l : least_specific s ks = Some (k, l) -> index_get s k = Some l.
Proof.
  induction ks as [|k0 t IH]; cbn [least_specific]; [discriminate|].
  destruct (index_get s k0) as [l0|] eqn:E; [|exact IH].
  intros H. inversion H; subst. exact E.
Qed.

Lemma loc_valid_tot s l : loc_valid s l = true -> (l_abs l < tot s)%N.
Proof. unfold loc_valid. intros H. apply andb_true_iff in H. apply N.ltb_lt. apply H. Qed.

Lemma loc_valid_block c s l : CInv c s -> loc_valid s l = true -> exists b, block_of_loc s l = Some b.
Proof.
  intros [_ C2 _ _] V. pose proof (loc_valid_tot s l V) as Hl. unfold tot in Hl.
  unfold loc_valid in V. apply andb_true_iff in V. destruct V as [V _]. apply N.leb_le in V.
  unfold block_of_loc.
  destruct (nth_error (s_blocks s) (N.to_nat (l_abs l - s_released s))) as [b|] eqn:E; [exists b; reflexivity|].
  apply nth_error_None in E. lia.
Qed.

Lemma block_of_loc_in s l b : block_of_loc s l = Some b -> In b (s_blocks s).
Proof. apply nth_error_In. Qed.

(** what the invariant says about one parked thread *)
Definition thr_ok (s : state) (t : thread) : Prop :=
  match t with
  | TGet _ _ l _ _ | TGfc _ _ _ l _ _ => (l_abs l < tot s)%N
  | TGfcErr e => (0 < e)%Z
  | _ => True
  end.
Definition is_TGet (t : thread) : Prop :=
  match t with TGet _ _ _ _ _ => True | _ => False end.

Lemma HI_rebase c s0 s R : HI c s0 s R -> HI c s s R.
Proof. intros [A [C _]]. split; [exact A|]. split; [exact C | apply Fr_refl]. Qed.
Lemma HI_tot c s0 s R : HI c s0 s R -> (tot s0 <= tot s)%N.
Proof. intros [_ [_ [_ _ _ F]]]. exact F. Qed.

Lemma tot_pin s uid : tot (pin s uid) = tot s.
Proof. unfold tot, pin. sred. rewrite map_uid_length. reflexivity. Qed.

Lemma HI_pin_loc c s0 s R l b : HI c s0 s R -> block_of_loc s l = Some b ->
  HI c s0 (pin s (b_uid b)) (b_uid b :: R).
Proof. intros H E. apply HI_pin; [apply uids_blocks; eapply block_of_loc_in; exact E | exact H]. Qed.

Lemma pin_put_ok c s0 s R l b size : wfc c -> HI c s0 s R -> block_of_loc s l = Some b ->
  (tot s <= tot (snd (ocn_put c (pin s (b_uid b)) size)))%N /\
  match fst (ocn_put c (pin s (b_uid b)) size) with
  | Ok wr => HI c s0 (snd (ocn_put c (pin s (b_uid b)) size)) (wr_uid wr :: b_uid b :: R)
  | Err e => HI c s0 (unpin c (snd (ocn_put c (pin s (b_uid b)) size)) (b_uid b)) R /\ (0 < e)%Z
  end.
Proof.
  intros W H E. split.
  - (* the same walk from [s] itself bounds [tot] *)
    pose proof (ocn_put_ok c s _ _ size W (HI_pin_loc c s s R l b (HI_rebase _ _ _ _ H) E)) as X.
    destruct (fst (ocn_put c (pin s (b_uid b)) size)); [|destruct X as [X _]]; exact (HI_tot _ _ _ _ X).
  - pose proof (ocn_put_ok c s0 _ _ size W (HI_pin_loc c s0 s R l b H E)) as X.
    destruct (fst (ocn_put c (pin s (b_uid b)) size)) as [wr|e]; [exact X|].
    destruct X as [X He]. split; [apply HI_unpin; exact X|]. destruct He as [-> | ->]; reflexivity.
Qed.

Lemma open_with_refresh_ok w s0 s R o l fkeys : wfc (w_cfg w) -> HI (w_cfg w) s0 s R ->
  loc_valid s l = true ->
  match fst (open_with_refresh w s o l fkeys) with
  | Ok t => is_TGet t /\ HI (w_cfg w) s0 (snd (open_with_refresh w s o l fkeys)) (refs (w_cfg w) t ++ R) /\
            thr_ok s t
  | Err e => HI (w_cfg w) s0 (snd (open_with_refresh w s o l fkeys)) R /\ (0 < e)%Z
  end.
Proof.
  intros W H V. set (c := w_cfg w) in *. unfold open_with_refresh. fold c.
  pose proof (loc_valid_tot s l V) as Hl.
  pose proof H as [_ [C _]]. destruct (loc_valid_block c s l C V) as [b Eb]. rewrite Eb.
  destruct (needs_refresh s l).
  2:{ cbn [fst snd refs wref app]. split; [exact I|]. split; [exact (HI_pin_loc c s0 s R l b H Eb) | exact Hl]. }
  destruct (pin_put_ok c s0 s R l b (l_size l) W H Eb) as [_ H2].
  destruct (ocn_put c (pin s (b_uid b)) (l_size l)) as [[wr|e] s2]; cbn [fst snd] in *; [|exact H2].
  destruct (lockstep c).
  { cbn [fst snd refs wref app]. split; [exact I|]. split; [|exact Hl].
    eapply HI_perm; [apply perm_swap | exact H2]. }
  set (s3 := write_block s2 (wr_uid wr) (wr_off wr) (read_block s2 (b_uid b) (l_off l) (l_size l))).
  destruct (finalize_spec c s0 s3 _ wr true (HI_write_block c s0 s2 _ _ _ _ H2)) as (H4 & _ & He).
  destruct (finalize c s3 wr true) as [[nl|e] s4]; cbn [fst snd] in *.
  - split; [exact I|]. split; [apply HI_index_put_all; exact H4 | exact Hl].
  - split; [apply HI_unpin; exact H4 | exact He].
Qed.

Lemma sync_from_canonical_spec s o k cl s1 : sync_from_canonical s o k = Some (cl, s1) ->
  loc_valid s cl = true /\ s1 = index_put s k cl.
Proof.
  unfold sync_from_canonical. destruct (index_get s (canonical_key o)) as [cl'|] eqn:E; [|discriminate].
  destruct (needs_refresh s cl'); [discriminate|]. intros H. inversion H; subst.
  split; [eapply index_get_valid; eauto | reflexivity].
Qed.

Lemma get_open_ok w s0 s R o i : wfc (w_cfg w) -> HI (w_cfg w) s0 s R ->
  match fst (get_open w s o i) with
  | Ok t => is_TGet t /\ HI (w_cfg w) s0 (snd (get_open w s o i)) (refs (w_cfg w) t ++ R) /\ thr_ok s t
  | Err e => HI (w_cfg w) s0 (snd (get_open w s o i)) R /\ (0 < e)%Z
  end.
Proof.
  intros W H. unfold get_open.
  destruct (least_specific s (lookup_keys w o i)) as [[k l]|] eqn:ELS.
  2:{ cbn [fst snd]. split; [exact H | reflexivity]. }
  assert (V : loc_valid s l = true).
  { eapply index_get_valid. eapply least_specific_get. exact ELS. }
  destruct (negb (needs_refresh s l)).
  { apply open_with_refresh_ok; assumption. }
  destruct (c_hier (w_cfg w)).
  - destruct (sync_from_canonical s o k) as [[cl s1]|] eqn:ES.
    + apply sync_from_canonical_spec in ES. destruct ES as [V1 ->].
      (* [index_put] leaves the allocator alone: [loc_valid] and [thr_ok] at the two states are the same *)
      apply (open_with_refresh_ok w s0 (index_put s k cl)); [exact W | apply HI_index_put; exact H | exact V1].
    + apply open_with_refresh_ok; assumption.
  - apply open_with_refresh_ok; assumption.
Qed.

(** functions that never allocate: [s_next_uid] is unchanged *)
Lemma nu_write_block s uid off data : s_next_uid (write_block s uid off data) = s_next_uid s.
Proof. unfold write_block. destruct (find_block s uid); reflexivity. Qed.
Lemma nu_index_put_all ks : forall s l, s_next_uid (index_put_all s ks l) = s_next_uid s.
Proof. induction ks as [|k t IH]; intros s l; cbn [index_put_all]; [reflexivity|]. rewrite IH. reflexivity. Qed.
Definition gc_state (r : Z * list N * state) : state := snd r.
Definition gc_code (r : Z * list N * state) : Z := fst (fst r).

Lemma gc_state_tail valid code (bytes : list N) s3 :
  gc_state (if negb valid then (cInternal, [], s3)
            else if Z.eqb code cOK then (cOK, bytes, s3) else (code, [], s3)) = s3.
Proof. destruct (negb valid); [|destruct (Z.eqb code cOK)]; reflexivity. Qed.

Lemma gc_code_tail valid code (bytes : list N) s3 : (0 <= code)%Z ->
  (0 <= gc_code (if negb valid then (cInternal, [], s3)
                 else if Z.eqb code cOK then (cOK, bytes, s3) else (code, [], s3)))%Z.
Proof.
  intros H. destruct (negb valid); [|destruct (Z.eqb code cOK)]; unfold gc_code; cbn [fst]; [discriminate..|exact H].
Qed.

Lemma get_consume_ok w s0 s R o uid l refresh fkeys :
  HI (w_cfg w) s0 s (uid :: wref refresh ++ R) -> (l_abs l < tot s)%N ->
  HI (w_cfg w) s0 (gc_state (get_consume w s o uid l refresh fkeys)) R /\
  (0 <= gc_code (get_consume w s o uid l refresh fkeys))%Z /\
  s_next_uid (gc_state (get_consume w s o uid l refresh fkeys)) = s_next_uid s.
Proof.
  intros H Hl. set (c := w_cfg w) in *. unfold get_consume. fold c.
  pose proof (read_validated_ok w s0 s _ o uid l Hl H) as [H1 N1]. fold c in H1.
  destruct (read_validated w s o uid l) as [[valid bytes] s1]. cbn [fst snd] in H1, N1.
  destruct refresh as [wr|]; cbn [wref app] in H1.
  - set (s1' := if valid then write_block s1 (wr_uid wr) (wr_off wr) bytes else s1).
    assert (H1' : HI c s0 s1' (wr_uid wr :: uid :: R)).
    { eapply HI_perm; [apply perm_swap|]. unfold s1'. destruct valid; [apply HI_write_block|]; exact H1. }
    assert (N1' : s_next_uid s1' = s_next_uid s).
    { unfold s1'. destruct valid; [rewrite nu_write_block|]; exact N1. }
    destruct (finalize_spec c s0 s1' _ wr valid H1') as (H2 & N2 & He).
    destruct (finalize c s1' wr valid) as [[nl|e] s1'']; cbn [fst snd] in *;
      rewrite gc_state_tail, nu_unpin, ?nu_index_put_all, N2.
    + split; [apply HI_unpin, HI_index_put_all; exact H2|]. split; [apply gc_code_tail; discriminate | exact N1'].
    + split; [apply HI_unpin; exact H2|]. split; [apply gc_code_tail, Z.lt_le_incl; exact He | exact N1'].
  - rewrite gc_state_tail, nu_unpin. split; [apply HI_unpin; exact H1|]. split; [apply gc_code_tail; discriminate | exact N1].
Qed.

Lemma fm_refresh_one_ok w s0 s R o i : wfc (w_cfg w) -> HI (w_cfg w) s0 s R ->
  HI (w_cfg w) s0 (snd (fm_refresh_one w s o i)) R /\
  match fst (fm_refresh_one w s o i) with Err e => (0 < e)%Z | Ok _ => True end.
Proof.
  intros W H. set (c := w_cfg w) in *. unfold fm_refresh_one. fold c.
  destruct (least_specific s (lookup_keys w o i)) as [[k l]|] eqn:ELS.
  2:{ cbn [fst snd]. auto. }
  assert (V : loc_valid s l = true).
  { eapply index_get_valid. eapply least_specific_get. exact ELS. }
  destruct (negb (needs_refresh s l)); [cbn [fst snd]; auto|].
  match goal with |- context [match ?d with Some s1 => (Ok true, s1) | None => _ end] => set (direct := d) end.
  assert (HD : forall s1, direct = Some s1 -> HI c s0 s1 R).
  { unfold direct. intros s1. destruct (c_hier c); [|discriminate].
    destruct (sync_from_canonical s o k) as [[cl s1']|] eqn:ES; [|discriminate].
    apply sync_from_canonical_spec in ES. destruct ES as [_ ->]. intros X. inversion X; subst.
    apply HI_index_put. exact H. }
  destruct direct as [s1|]; [cbn [fst snd]; split; [apply HD; reflexivity | exact I]|].
  pose proof H as [_ [C _]]. destruct (loc_valid_block c s l C V) as [b Eb]. rewrite Eb.
  destruct (pin_put_ok c s0 s R l b (l_size l) W H Eb) as [Ht H2].
  destruct (ocn_put c (pin s (b_uid b)) (l_size l)) as [[wr|e] s2]; cbn [fst snd] in *; [|exact H2].
  assert (Hl2 : (l_abs l < tot s2)%N) by (eapply N.lt_le_trans; [apply loc_valid_tot; exact V | exact Ht]).
  pose proof (read_validated_ok w s0 s2 _ o (b_uid b) l Hl2 H2) as [H3 _]. fold c in H3.
  destruct (read_validated w s2 o (b_uid b) l) as [[valid bytes] s3]. cbn [fst snd] in H3.
  set (s3' := if valid then write_block s3 (wr_uid wr) (wr_off wr) bytes else s3).
  assert (H3' : HI c s0 s3' (b_uid b :: wr_uid wr :: R)).
  { eapply HI_perm; [apply perm_swap|]. unfold s3'. destruct valid; [apply HI_write_block|]; exact H3. }
  apply HI_unpin in H3'.
  destruct (finalize_spec c s0 _ _ wr valid H3') as (H4 & _ & He).
  destruct (finalize c (unpin c s3' (b_uid b)) wr valid) as [[nl|e] s4]; cbn [fst snd] in *.
  - split; [apply HI_index_put_all; exact H4 | exact I].
  - split; [exact H4|]. destruct valid; [exact He | reflexivity].
Qed.

Lemma fm_phase2_ok w s0 R : wfc (w_cfg w) -> forall todo s missing, HI (w_cfg w) s0 s R ->
  HI (w_cfg w) s0 (snd (fm_phase2 w s todo missing)) R /\
  match fst (fm_phase2 w s todo missing) with Err e => (0 < e)%Z | Ok _ => True end.
Proof.
  intros W. induction todo as [|[pos [o i]] t IH]; intros s missing H; cbn [fm_phase2].
  { cbn [fst snd]. auto. }
  destruct (fm_refresh_one_ok w s0 s R o i W H) as [H1 He].
  destruct (fm_refresh_one w s o i) as [[[|]|e] s1]; cbn [fst snd] in *.
  - apply IH. exact H1.
  - apply IH. exact H1.
  - auto.
Qed.

Lemma find_missing_ok w s0 s R ds : wfc (w_cfg w) -> HI (w_cfg w) s0 s R ->
  HI (w_cfg w) s0 (snd (find_missing w s ds)) R /\
  match fst (find_missing w s ds) with Err e => (0 < e)%Z | Ok _ => True end.
Proof. intros W H. unfold find_missing. apply fm_phase2_ok; assumption. Qed.

Lemma put_start_ok w s0 s R o i : wfc (w_cfg w) -> HI (w_cfg w) s0 s R ->
  match fst (put_start w s o i) with
  | Ok t => thr_ok s t /\ HI (w_cfg w) s0 (snd (put_start w s o i)) (refs (w_cfg w) t ++ R)
  | Err e => HI (w_cfg w) s0 (snd (put_start w s o i)) R /\ (0 < e)%Z
  end.
Proof.
  intros W H. unfold put_start.
  match goal with |- context [if ?e then (Ok (TPutExisting o i []), s) else _] => destruct e end.
  { cbn [fst snd refs app]. split; [exact I | exact H]. }
  pose proof (ocn_put_ok (w_cfg w) s0 s R (osize w o) W H) as H1.
  destruct (ocn_put (w_cfg w) s (osize w o)) as [[wr|e] s1]; cbn [fst snd refs app] in *.
  - split; [exact I | exact H1].
  - destruct H1 as [H1 [-> | ->]]; split; auto; reflexivity.
Qed.

Definition tids (s : state) : list nat := map fst (s_threads s).

Record Inv (w : world) (s : state) : Prop := {
  i_a : AInv (w_cfg w) s (all_refs (w_cfg w) (s_threads s));
  i_c : CInv (w_cfg w) s;
  i_nd : NoDup (tids s);
  i_thr : forall tid t, In (tid, t) (s_threads s) -> thr_ok s t;
}.

(** no impossible (negative) code is ever reported; the only codes that are
    not the model's own are the source errors injected by [OPutEnd] *)
Definition out_ok (e : op) (o : out) : Prop :=
  match o with
  | Done code _ | Missing code _ => (0 <= code)%Z \/ (exists tid, e = OPutEnd tid code)
  | _ => True
  end.

Definition op_start (e : op) : option nat :=
  match e with OPutStart t _ _ | OGetOpen t _ _ | OGfcStart t _ _ _ => Some t | _ => None end.
Definition op_cont (e : op) : option nat :=
  match e with OPutChunk t _ | OPutEnd t _ | OGetConsume t | OGfcSlice t _ => Some t | _ => None end.

(** effect of a step on the table of parked operations *)
Definition thr_eff (e : op) (o : out) (ts ts' : list (nat * thread)) : Prop :=
  match o with
  | Bad => ts' = ts
  | Parked => (exists tid t, op_start e = Some tid /\ thr_get ts tid = None /\ ts' = (tid, t) :: thr_del ts tid) \/
              (exists tid t, op_cont e = Some tid /\ thr_get ts tid <> None /\ ts' = (tid, t) :: thr_del ts tid)
  | Done _ _ => (op_cont e = None /\ ts' = ts) \/ (exists tid, op_cont e = Some tid /\ ts' = thr_del ts tid)
  | Missing _ _ => op_start e = None /\ op_cont e = None /\ ts' = ts
  end.

(** blocks only appear with fresh uids; uids keep their region *)
Definition Ext (s s' : state) : Prop :=
  s_next_uid s <= s_next_uid s' /\
  (forall b', In b' (allb s') -> b_uid b' < s_next_uid s ->
     exists b, In b (allb s) /\ b_uid b = b_uid b' /\ b_region b = b_region b') /\
  (tot s <= tot s')%N.

Definition StepOK (w : world) (s : state) (e : op) (r : state * out) : Prop :=
  Inv w (fst r) /\ out_ok e (snd r) /\ thr_eff e (snd r) (s_threads s) (s_threads (fst r)) /\
  (snd r = Bad -> fst r = s) /\ Ext s (fst r) /\
  (s_next_uid s < s_next_uid (fst r) -> incl (s_threads s) (s_threads (fst r))).

Lemma thr_get_some_in ts tid : In tid (map fst ts) -> thr_get ts tid <> None.
Proof. intros H X. exact (thr_get_none _ _ X H). Qed.

Lemma thr_ok_mono s s' t : (tot s <= tot s')%N -> thr_ok s t -> thr_ok s' t.
Proof. intros H. destruct t; cbn [thr_ok]; auto; lia. Qed.

Lemma Inv_final w s s1 s' R1 :
  HI (w_cfg w) s s1 R1 -> same_alloc s1 s' -> same_cnt s1 s' ->
  Permutation R1 (all_refs (w_cfg w) (s_threads s')) -> NoDup (tids s') ->
  (forall i t, In (i, t) (s_threads s') -> thr_ok s1 t) ->
  Inv w s' /\ Ext s s'.
Proof.
  intros [A [C F]] SA SC P ND HT.
  assert (ET : tot s' = tot s1).
  { unfold tot. destruct SA as (E1 & _). destruct SC as (_ & _ & _ & E4 & _). rewrite E1, E4. reflexivity. }
  split.
  - constructor.
    + eapply AInv_same; [exact SA|]. eapply AInv_perm; eauto.
    + eapply CInv_same; [apply SA | exact SC | exact C].
    + exact ND.
    + intros i t H. eapply thr_ok_mono; [|apply (HT i t H)]. lia.
  - destruct F as [F1 F2 F3 F4]. destruct SA as (E1 & E2 & E3 & E4 & E5). unfold Ext.
    split; [lia|]. split.
    + intros b' Hb' Hlt. apply F3; [|exact Hlt]. unfold allb in *. rewrite <- E1, <- E2. exact Hb'.
    + rewrite ET. exact F4.
Qed.

Lemma fold_left_pres {A} (P : state -> Prop) (f : state -> A -> state) :
  (forall s a, P s -> P (f s a)) -> forall l s, P s -> P (fold_left f l s).
Proof. intros Hf. induction l as [|a t IH]; intros s H; cbn [fold_left]; auto. Qed.

Section STEP.
Variable w : world.
Local Notation c := (w_cfg w).
Hypothesis W : wfc c.
Variable s : state.
Hypothesis HInv : Inv w s.
Local Notation ts := (s_threads s).
Local Notation R := (all_refs c ts).

Lemma H0 : HI c s s R.
Proof. destruct HInv as [A C _ _]. split; [exact A|]. split; [exact C | apply Fr_refl]. Qed.

Lemma thr_ok_s1 s1 R1 : HI c s s1 R1 -> forall i t, In (i, t) ts -> thr_ok s1 t.
Proof.
  intros H i t Hin. eapply thr_ok_mono; [apply (HI_tot _ _ _ _ H)|]. destruct HInv as [_ _ _ T]. eapply T; eauto.
Qed.

Lemma step_bad e : StepOK w s e (s, Bad).
Proof.
  unfold StepOK. cbn [fst snd]. split; [exact HInv|]. split; [exact I|]. split; [reflexivity|].
  split; [reflexivity|]. split.
  - unfold Ext. split; [lia|]. split; [|lia]. intros b' H _. exists b'. auto.
  - intros _. apply incl_refl.
Qed.

(** the operation returned without touching the thread table *)
Lemma fin_same e s1 o : HI c s s1 R -> op_cont e = None ->
  match o with Done code _ | Missing code _ => (0 <= code)%Z | _ => False end ->
  (forall code ds, o = Missing code ds -> op_start e = None) ->
  StepOK w s e (s1, o).
Proof.
  intros H Hc Ho Hm. pose proof H as [_ [_ F]]. destruct F as [F1 _ _ _].
  destruct (Inv_final w s s1 s1 R H) as [I1 E1]; try same_tac.
  - rewrite F1. apply Permutation_refl.
  - unfold tids. rewrite F1. destruct HInv as [_ _ ND _]. exact ND.
  - intros i t Hin. rewrite F1 in Hin. eapply thr_ok_s1; eauto.
  - unfold StepOK. cbn [fst snd]. split; [exact I1|]. split.
    + destruct o; try exact I; left; exact Ho.
    + split; [|split; [|split]].
      * destruct o; cbn [thr_eff]; try contradiction.
        -- left. split; [exact Hc | exact F1].
        -- split; [eapply Hm; reflexivity|]. split; [exact Hc | exact F1].
      * intros ->. contradiction.
      * exact E1.
      * intros _. rewrite F1. apply incl_refl.
Qed.

(** a new operation parks *)
Lemma fin_start e tid t s1 : op_start e = Some tid -> thr_get ts tid = None ->
  HI c s s1 (refs c t ++ R) -> thr_ok s t ->
  StepOK w s e (thr_set s1 tid t, Parked).
Proof.
  intros Hs Hg H Ht. apply (thr_ok_mono s s1 t (HI_tot _ _ _ _ H)) in Ht.
  pose proof H as [_ [_ F]]. destruct F as [F1 _ _ _].
  assert (Hn : ~ In tid (map fst ts)) by (apply thr_get_none; exact Hg).
  assert (ED : thr_del (s_threads s1) tid = ts) by (rewrite F1; apply thr_del_notin; exact Hn).
  destruct (Inv_final w s s1 (thr_set s1 tid t) _ H) as [I1 E1]; try same_tac.
  - unfold thr_set. sred. rewrite ED. cbn [all_refs flat_map snd]. apply Permutation_refl.
  - unfold tids, thr_set. sred. rewrite ED. cbn [map fst]. constructor; [exact Hn|].
    destruct HInv as [_ _ ND _]. exact ND.
  - unfold thr_set. sred. rewrite ED. intros i t' [X|X]; [inversion X; subst; exact Ht|].
    eapply thr_ok_s1; eauto.
  - unfold StepOK. cbn [fst snd]. split; [exact I1|]. split; [exact I|].
    split; [|split; [discriminate|split; [exact E1|]]].
    + cbn [thr_eff]. left. exists tid, t. split; [exact Hs|]. split; [exact Hg|].
      unfold thr_set. sred. rewrite ED. rewrite (thr_del_notin ts tid Hn). reflexivity.
    + intros _. unfold thr_set. sred. rewrite ED. apply incl_tl. apply incl_refl.
Qed.

(** a parked operation returns *)
Lemma fin_cont_done e tid t s1 code bytes : op_cont e = Some tid -> thr_get ts tid = Some t ->
  HI c s s1 (all_refs c (thr_del ts tid)) -> s_next_uid s1 = s_next_uid s ->
  ((0 <= code)%Z \/ exists tid', e = OPutEnd tid' code) ->
  StepOK w s e (thr_rm s1 tid, Done code bytes).
Proof.
  intros Hc Hg H Hnu Hcode. pose proof H as [_ [_ F]]. destruct F as [F1 _ _ _].
  destruct (Inv_final w s s1 (thr_rm s1 tid) _ H) as [I1 E1]; try same_tac.
  - unfold thr_rm. sred. rewrite F1. apply Permutation_refl.
  - unfold tids, thr_rm. sred. rewrite F1. apply thr_del_nodup. destruct HInv as [_ _ ND _]. exact ND.
  - unfold thr_rm. sred. rewrite F1. intros i t' X. apply thr_del_in in X. eapply thr_ok_s1; [exact H | apply X].
  - unfold StepOK. cbn [fst snd]. split; [exact I1|]. split; [exact Hcode|].
    split; [|split; [discriminate|split; [exact E1|]]].
    + cbn [thr_eff]. right. exists tid. split; [exact Hc|]. unfold thr_rm. sred. rewrite F1. reflexivity.
    + unfold thr_rm. sred. lia.
Qed.

(** a parked operation takes a step and stays parked *)
Lemma fin_cont_park e tid t t' s1 : op_cont e = Some tid -> thr_get ts tid = Some t ->
  HI c s s1 (refs c t' ++ all_refs c (thr_del ts tid)) -> s_next_uid s1 = s_next_uid s ->
  thr_ok s1 t' ->
  StepOK w s e (thr_set s1 tid t', Parked).
Proof.
  intros Hc Hg H Hnu Ht. pose proof H as [_ [_ F]]. destruct F as [F1 _ _ _].
  destruct (Inv_final w s s1 (thr_set s1 tid t') _ H) as [I1 E1]; try same_tac.
  - unfold thr_set. sred. rewrite F1. cbn [all_refs flat_map snd]. apply Permutation_refl.
  - unfold tids, thr_set. sred. rewrite F1. cbn [map fst]. constructor.
    + intros X. apply thr_del_tids in X. destruct X as [_ X]. congruence.
    + apply thr_del_nodup. destruct HInv as [_ _ ND _]. exact ND.
  - unfold thr_set. sred. rewrite F1. intros i t0 [X|X]; [inversion X; subst; exact Ht|].
    apply thr_del_in in X. eapply thr_ok_s1; [exact H | apply X].
  - unfold StepOK. cbn [fst snd]. split; [exact I1|]. split; [exact I|].
    split; [|split; [discriminate|split; [exact E1|]]].
    + cbn [thr_eff]. right. exists tid, t'. split; [exact Hc|]. split; [congruence|].
      unfold thr_set. sred. rewrite F1. reflexivity.
    + unfold thr_set. sred. lia.
Qed.

Lemma parked tid t : thr_get ts tid = Some t ->
  HI c s s (refs c t ++ all_refs c (thr_del ts tid)) /\ thr_ok s t.
Proof.
  intros H. destruct HInv as [_ _ ND T]. split.
  - eapply HI_perm; [apply (thr_flat_map_split (refs c)); [exact ND | exact H] | apply H0].
  - eapply T. apply thr_get_in. exact H.
Qed.

Ltac bad := apply step_bad.
(* three goals remain: the invariant, no allocation, the code *)
Ltac fcd := eapply fin_cont_done; [reflexivity | eassumption | ..].
Ltac fcp t := eapply fin_cont_park with (t' := t); [reflexivity | eassumption | ..].
(* two goals remain: the invariant, the code *)
Ltac fsa := apply fin_same; [ | reflexivity | | first [discriminate | intros; reflexivity]].
(* two goals remain: the invariant, thr_ok *)
Ltac fsta := apply fin_start; [reflexivity | assumption | ..].
Ltac code0 := left; discriminate.

Lemma step_put_start tid o i : StepOK w s (OPutStart tid o i) (step w s (OPutStart tid o i)).
Proof.
  unfold step. cbn [may_take_refresh_lock is_corrupt andb].
  destruct (thr_get ts tid) eqn:Eg; [bad|].
  pose proof (put_start_ok w s s R o i W H0) as H.
  destruct (put_start w s o i) as [[t|e] s1]; cbn [fst snd] in H.
  - destruct H as [Ht H]. fsta; [exact H | exact Ht].
  - destruct H as [H He]. fsa; [exact H | apply Z.lt_le_incl; exact He].
Qed.

Lemma step_get_open tid o i : StepOK w s (OGetOpen tid o i) (step w s (OGetOpen tid o i)).
Proof.
  unfold step. cbn [may_take_refresh_lock is_corrupt andb].
  destruct (thr_get ts tid) eqn:Eg; [bad|].
  pose proof (get_open_ok w s s R o i W H0) as H.
  destruct (get_open w s o i) as [[t|e] s1]; cbn [fst snd] in H.
  - destruct H as [Ht [H Hk]]. fsta; [exact H | exact Hk].
  - destruct H as [H He]. fsa; [exact H | apply Z.lt_le_incl; exact He].
Qed.

Lemma step_put_chunk tid data : StepOK w s (OPutChunk tid data) (step w s (OPutChunk tid data)).
Proof.
  unfold step. cbn [may_take_refresh_lock is_corrupt andb].
  destruct (thr_get ts tid) as [t|] eqn:Eg; [|bad].
  destruct (parked tid _ Eg) as [H _].
  destruct t as [o i wr acc|o i acc|? ? ? ? ?|? ? ? ? ? ?|?]; try bad; cbn [refs app] in H.
  - destruct (N.ltb (wr_size wr) _).
    + destruct (finalize_spec c s s _ wr false H) as (H1 & N1 & _).
      destruct (finalize c s wr false) as [r s1]. cbn [snd] in *.
      fcd; [exact H1 | exact N1 | code0].
    + fcp (TPut o i wr (acc ++ data)); [| apply nu_write_block | exact Logic.I].
      cbn [refs app]. apply HI_write_block. exact H.
  - destruct (N.ltb (osize w o) _).
    + fcd; [exact H | reflexivity | code0].
    + fcp (TPutExisting o i (acc ++ data)); [exact H | reflexivity | exact Logic.I].
Qed.

Lemma step_put_end tid err : StepOK w s (OPutEnd tid err) (step w s (OPutEnd tid err)).
Proof.
  unfold step. cbn [may_take_refresh_lock is_corrupt andb].
  destruct (thr_get ts tid) as [t|] eqn:Eg; [|bad].
  destruct (parked tid _ Eg) as [H _].
  destruct t as [o i wr acc|o i acc|? ? ? ? ?|? ? ? ? ? ?|?]; try bad; cbn [refs app] in H.
  - set (ok := Z.eqb err 0 && bytes_eqb acc (content w o)).
    destruct (finalize_spec c s s _ wr ok H) as (H1 & N1 & He).
    destruct (finalize c s wr ok) as [[l|e] s1]; cbn [fst snd] in *.
    + fcd; [apply HI_index_put_all; exact H1 | rewrite nu_index_put_all; exact N1 | code0].
    + fcd; [exact H1 | exact N1 |].
      destruct (Z.eqb err 0); [left; apply Z.lt_le_incl; exact He | right; exists tid; reflexivity].
  - destruct (negb (Z.eqb err 0)).
    { fcd; [exact H | reflexivity | right; exists tid; reflexivity]. }
    destruct (negb (bytes_eqb acc (content w o))).
    { fcd; [exact H | reflexivity | code0]. }
    destruct (index_get s (canonical_key o)) as [l|].
    + fcd; [apply HI_index_put; exact H | reflexivity | code0].
    + fcd; [exact H | reflexivity | code0].
Qed.

Lemma step_get_consume tid : StepOK w s (OGetConsume tid) (step w s (OGetConsume tid)).
Proof.
  unfold step. cbn [may_take_refresh_lock is_corrupt andb].
  destruct (thr_get ts tid) as [t|] eqn:Eg; [|bad].
  destruct (parked tid _ Eg) as [H Hl].
  destruct t as [? ? ? ?|? ? ?|o uid l refresh fkeys|? ? ? ? ? ?|?]; try bad; cbn [refs app thr_ok] in H, Hl.
  pose proof (get_consume_ok w s s _ o uid l refresh fkeys H Hl) as (H1 & Hc & N1).
  destruct (get_consume w s o uid l refresh fkeys) as [[code bytes] s1].
  unfold gc_state, gc_code in *. cbn [fst snd] in *.
  fcd; [exact H1 | exact N1 | left; exact Hc].
Qed.

Lemma step_find_missing ds : StepOK w s (OFindMissing ds) (step w s (OFindMissing ds)).
Proof.
  unfold step. cbn [may_take_refresh_lock is_corrupt andb].
  destruct (refresh_lock_held s); [bad|].
  pose proof (find_missing_ok w s s R ds W H0) as [H He].
  destruct (find_missing w s ds) as [[m|e] s1]; cbn [fst snd] in *.
  - fsa; [exact H | discriminate].
  - fsa; [exact H | apply Z.lt_le_incl; exact He].
Qed.

Lemma step_corrupt r off len : StepOK w s (OCorrupt r off len) (step w s (OCorrupt r off len)).
Proof.
  unfold step. cbn [may_take_refresh_lock is_corrupt andb].
  destruct (reader_open s); [bad|].
  destruct (dev_get (s_dev s) r).
  - fsa; [apply H0 | discriminate].
  - fsa; [apply HI_upd_dev; apply H0 | discriminate].
Qed.

Lemma step_gfc_start tid p i ch : StepOK w s (OGfcStart tid p i ch) (step w s (OGfcStart tid p i ch)).
Proof.
  unfold step. cbn [may_take_refresh_lock is_corrupt andb].
  destruct (refresh_lock_held s); [bad|].
  destruct (thr_get ts tid) eqn:Eg; [bad|].
  pose proof H0 as HH.
  destruct (c_hier c) eqn:EH.
  - (* hierarchical: slicer.Slice(ba.Get(parent)) *)
    pose proof (get_open_ok w s s R p i W HH) as H.
    destruct (get_open w s p i) as [[t|e] s1]; cbn [fst snd] in H.
    + destruct H as [Ht [H Hk]]. destruct t; try contradiction.
      fsta; [exact H | exact Hk].
    + destruct H as [H He]. fsta; [exact H | exact He].
  - (* flat *)
    destruct (index_get s (flat_key c p i)) as [pl|] eqn:EP.
    2:{ fsa; [exact HH | discriminate]. }
    pose proof HH as [_ [C _]].
    pose proof (index_get_valid _ _ _ EP) as VP.
    set (direct := if needs_refresh s pl then None
                   else match index_get s (flat_key c ch i) with
                        | Some cl => match block_of_loc s cl with Some b => Some (cl, b_uid b) | None => None end
                        | None => None
                        end).
    destruct direct as [[cl uid]|] eqn:ED.
    + (* the child is already indexed: read it directly *)
      assert (X : exists b, loc_valid s cl = true /\ block_of_loc s cl = Some b /\ uid = b_uid b).
      { unfold direct in ED. destruct (needs_refresh s pl); [discriminate|].
        destruct (index_get s (flat_key c ch i)) as [cl'|] eqn:EC; [|discriminate].
        destruct (block_of_loc s cl') as [b|] eqn:EB; [|discriminate].
        inversion ED; subst. exists b. split; [eapply index_get_valid; eauto | auto]. }
      destruct X as (b & V & EB & ->).
      assert (Hl1 : (l_abs cl < tot (pin s (b_uid b)))%N) by (rewrite tot_pin; apply loc_valid_tot; exact V).
      pose proof (get_consume_ok w s _ R ch (b_uid b) cl None [] (HI_pin_loc c s s R cl b HH EB) Hl1) as (H2 & Hc & _).
      destruct (get_consume w (pin s (b_uid b)) ch (b_uid b) cl None []) as [[code bytes] s2].
      unfold gc_state, gc_code in *. cbn [fst snd] in *.
      fsa; [exact H2 | exact Hc].
    + destruct (loc_valid_block c s pl C VP) as [b Eb]. rewrite Eb.
      pose proof (loc_valid_tot s pl VP) as Hl.
      destruct (needs_refresh s pl).
      * destruct (pin_put_ok c s s R pl b (l_size pl) W HH Eb) as [_ H2].
        destruct (ocn_put c (pin s (b_uid b)) (l_size pl)) as [[wr|e] s2]; cbn [fst snd] in *.
        -- fsta; [|exact Hl].
           cbn [refs]. destruct (lockstep c); cbn [wref app].
           ++ eapply HI_perm; [apply perm_swap | exact H2].
           ++ apply HI_unpin. apply HI_write_block. exact H2.
        -- destruct H2 as [H2 He]. fsa; [exact H2 | apply Z.lt_le_incl; exact He].
      * fsta; [|exact Hl].
        cbn [refs]. destruct (lockstep c); cbn [wref app]; exact (HI_pin_loc c s s R pl b HH Eb).
Qed.

Lemma step_gfc_slice tid slices : StepOK w s (OGfcSlice tid slices) (step w s (OGfcSlice tid slices)).
Proof.
  unfold step. cbn [may_take_refresh_lock is_corrupt andb].
  destruct (thr_get ts tid) as [t|] eqn:Eg; [|bad].
  destruct (parked tid _ Eg) as [H Hl].
  destruct t as [? ? ? ?|? ? ?|o uid l refresh fkeys|p i uid pl refresh pk|e]; try bad; cbn [refs app thr_ok] in H, Hl.
  - (* hierarchical composite read *)
    pose proof (get_consume_ok w s s _ o uid l refresh fkeys H Hl) as (H1 & Hc & N1).
    destruct (get_consume w s o uid l refresh fkeys) as [[code bytes] s1].
    unfold gc_state, gc_code in *. cbn [fst snd] in *.
    destruct (Z.eqb code cOK).
    + fcd; [exact H1 | exact N1 | code0].
    + fcd; [exact H1 | exact N1 | left; exact Hc].
  - (* flat composite read *)
    set (R' := all_refs c (thr_del ts tid)) in *.
    pose proof (read_validated_ok w s s _ p uid pl Hl H) as [H1 N1].
    destruct (read_validated w s p uid pl) as [[valid bytes] s1]. cbn [fst snd] in *.
    apply HI_unpin in H1. pose proof (nu_unpin c s1 uid) as N2.
    set (s1u := unpin c s1 uid) in *.
    set (Q := fun s'' => HI c s s'' R' /\ s_next_uid s'' = s_next_uid s).
    assert (MK : forall (ploc : loc) s', Q s' ->
       Q (fold_left (fun acc '(cho, (off, len)) =>
                     index_put acc (flat_key c cho i)
                               {| l_abs := l_abs ploc; l_off := (l_off ploc + off)%N; l_size := len |})
                  slices s')).
    { intros ploc. apply (fold_left_pres Q).
      intros s' [cho [off len]] [X1 X2]. split; [apply HI_index_put; exact X1 | exact X2]. }
    destruct (negb valid).
    + (* the parent is corrupted *)
      match goal with |- StepOK _ _ _ (thr_rm ?s2 tid, _) => assert (X : Q s2) end.
      { destruct refresh as [wr|]; [destruct (lockstep c)|]; cbn [wref app] in *.
        - destruct (finalize_spec c s s1u _ wr false H1) as (H2 & N3 & _). split; [exact H2 | congruence].
        - split; [exact H1 | congruence].
        - split; [destruct (lockstep c); exact H1 | congruence]. }
      destruct X as [X1 X2].
      fcd; [exact X1 | exact X2 | code0].
    + cbv zeta. destruct refresh as [wr|].
      * destruct (lockstep c) eqn:EL; cbn [wref app] in H1.
        -- destruct (finalize_spec c s _ _ wr true (HI_write_block c s s1u _ (wr_uid wr) (wr_off wr) bytes H1))
             as (H2 & N3 & He).
           rewrite nu_write_block in N3.
           destruct (finalize c (write_block s1u (wr_uid wr) (wr_off wr) bytes) wr true) as [[nl|e] s3]; cbn [fst snd] in *.
           ++ destruct (MK nl (index_put s3 pk nl)) as [X1 X2].
              { split; [apply HI_index_put; exact H2 | sred; congruence]. }
              fcd; [exact X1 | exact X2 | code0].
           ++ fcd; [exact H2 | congruence | left; apply Z.lt_le_incl; exact He].
        -- unfold fin_check. destruct (N.ltb (wr_abs wr) (s_tbr s1u)).
           ++ fcd; [exact H1 | congruence | code0].
           ++ match goal with |- context [fold_left _ slices (index_put s1u pk ?nl)] =>
                destruct (MK nl (index_put s1u pk nl)) as [X1 X2] end.
              { split; [apply HI_index_put; exact H1 | sred; congruence]. }
              fcd; [exact X1 | exact X2 | code0].
      * assert (H1' : HI c s s1u R') by (destruct (lockstep c); exact H1).
        destruct (index_get s1u pk) as [pl'|].
        -- destruct (MK pl' s1u) as [X1 X2]; [split; [exact H1' | congruence]|].
           fcd; [exact X1 | exact X2 | code0].
        -- fcd; [exact H1' | congruence | code0].
  - (* the slicer was handed an error *)
    fcd; [exact H | reflexivity | left; apply Z.lt_le_incl; exact Hl].
Qed.

Theorem step_ok e : StepOK w s e (step w s e).
Proof.
  destruct e.
  - apply step_put_start.
  - apply step_put_chunk.
  - apply step_put_end.
  - apply step_get_open.
  - apply step_get_consume.
  - apply step_find_missing.
  - apply step_gfc_start.
  - apply step_gfc_slice.
  - apply step_corrupt.
Qed.

End STEP.
