(** C01 proofs: one event preserves the store invariant and reads are
    correct - composition of the sub-operation lemmas of P01AllocA, P01OpsA
    and P01OpsB; the initial state satisfies the invariant. *)
From Coq Require Import List NArith ZArith Bool Arith Lia Permutation.
From BBS Require Import Store.Model Store.Wf Store.P01Inv Store.P01Thr
  Store.P01AllocA Store.P01OpsA Store.P01OpsB1 Store.P01OpsB3 Store.P01OpsB.
Import ListNotations.
Open Scope N_scope.

Lemma SInv_init w : SInv w (init_state (w_cfg w)).
Proof.
  constructor.
  - constructor.
    + constructor; unfold live, abs_end; cbn [init_state s_blocks s_zombies s_free s_old s_cur s_new
        s_released s_tbr s_dev s_index s_next_uid s_next_region app map length].
      * reflexivity.
      * split; cbn; lia.
      * constructor.
      * intros b [].
      * apply seq_NoDup.
      * intros _ b [].
      * unfold in_memory. intros H. apply Nat.eqb_eq in H. rewrite H. reflexivity.
      * intros b [].
      * intros b [].
      * intros r _. left. reflexivity.
      * intros k l [].
    + constructor; cbn [init_state s_blocks s_zombies]; intros b [].
    + constructor; unfold claims; cbn [init_state s_threads s_index claims_of_threads flat_map].
      * intros x [].
      * intros k l [].
      * exact I.
      * intros wr acc k l [].
  - cbn. constructor.
  - cbn. intros tid t [].
Qed.

Section Steps.
Variable w : world.
Let c := w_cfg w.

Lemma osize_len o : N.of_nat (length (content w o)) = osize w o.
Proof. reflexivity. Qed.

(** finalize with a successful copy, followed by publication under [keys] *)
Lemma finalize_ok_inv cl s wr o keys r s' :
  DInv w (CW wr (content w o) :: cl) s -> wr_size wr = osize w o ->
  (forall k, In k keys -> fst k = o) ->
  finalize c s wr true = (r, s') ->
  frame_tn s s' /\
  match r with
  | Err e => DInv w cl s' /\ e <> cOK
  | Ok nl => DInv w cl (index_put_all s' keys nl) /\
             DInv w (CU wr o :: cl) s' /\ s_tbr s' <= wr_abs wr /\
             nl = {| l_abs := wr_abs wr; l_off := wr_off wr; l_size := wr_size wr |}
  end.
Proof.
  intros HD Hsz Hk. rewrite finalize_eq. cbn [negb]. intros H. injection H as <- <-.
  split; [apply unpin_frame|].
  assert (HU : DInv w (CU wr o :: cl) (unpin c s (wr_uid wr))).
  { eapply cw_to_cu_inv; [exact HD|reflexivity|]. rewrite Hsz. reflexivity. }
  destruct (wr_abs wr <? s_tbr (unpin c s (wr_uid wr))) eqn:E.
  - split; [eapply DInv_drop, HU|discriminate].
  - apply N.ltb_ge in E. split; [|split; [exact HU|split; [exact E|reflexivity]]].
    eapply DInv_drop. eapply cu_publish_inv; [exact HU|left; reflexivity|exact E|exact Hk].
Qed.

Lemma finalize_fail_inv cl s wr acc r s' :
  DInv w (CW wr acc :: cl) s -> finalize c s wr false = (r, s') ->
  frame_tn s s' /\ DInv w cl s' /\ exists e, r = Err e /\ e <> cOK.
Proof.
  intros HD. rewrite finalize_eq. cbn [negb]. intros H. injection H as <- <-.
  split; [apply unpin_frame|]. split.
  - exact (unpin_inv w (CW wr acc) cl s HD (cref_self_cw wr acc)).
  - eexists. split; [reflexivity|discriminate].
Qed.

Lemma sinv_split s tid t :
  SInv w s -> thr_get (s_threads s) tid = Some t ->
  DInv w (claims_of_thread c t ++ claims_of_threads c (thr_del (s_threads s) tid)) s /\ thread_ok w t.
Proof.
  intros [HD Hnd Hth] Hg. split.
  - eapply DInv_perm; [|exact HD]. apply claims_get_perm; assumption.
  - eapply Hth. apply thr_get_in. exact Hg.
Qed.

Lemma sinv_set s0 s1 tid t :
  SInv w s0 -> s_threads s1 = s_threads s0 ->
  DInv w (claims_of_thread c t ++ claims_of_threads c (thr_del (s_threads s0) tid)) s1 ->
  thread_ok w t -> SInv w (thr_set s1 tid t).
Proof.
  intros [HD Hnd Hth] Ht HD1 Hok. unfold thr_set. rewrite Ht. constructor.
  - apply DInv_threads. exact HD1.
  - cbn [s_threads upd_threads map fst]. constructor; [apply thr_del_fst_notin|apply thr_del_nodup, Hnd].
  - cbn [s_threads upd_threads]. intros i x [E|H]; [injection E as <- <-; exact Hok|].
    apply thr_del_in in H. eapply Hth, H.
Qed.

Lemma sinv_rm s0 s1 tid :
  SInv w s0 -> s_threads s1 = s_threads s0 ->
  DInv w (claims_of_threads c (thr_del (s_threads s0) tid)) s1 -> SInv w (thr_rm s1 tid).
Proof.
  intros [HD Hnd Hth] Ht HD1. unfold thr_rm. rewrite Ht. constructor.
  - apply DInv_threads. exact HD1.
  - cbn [s_threads upd_threads]. apply thr_del_nodup, Hnd.
  - cbn [s_threads upd_threads]. intros i x H. apply thr_del_in in H. eapply Hth, H.
Qed.

Lemma sinv_same s0 s1 :
  SInv w s0 -> s_threads s1 = s_threads s0 -> DInv w (claims c s0) s1 -> SInv w s1.
Proof.
  intros [HD Hnd Hth] Ht HD1. constructor.
  - unfold claims. rewrite Ht. exact HD1.
  - rewrite Ht. exact Hnd.
  - rewrite Ht. exact Hth.
Qed.

Lemma claims_del_none s tid :
  thr_get (s_threads s) tid = None -> claims_of_threads c (thr_del (s_threads s) tid) = claims c s.
Proof. intros H. rewrite thr_del_none by exact H. reflexivity. Qed.

Lemma put_start_inv cl s o i r s' :
  DInv w cl s -> put_start w s o i = (r, s') ->
  frame_tn s s' /\
  match r with
  | Err _ => DInv w cl s'
  | Ok t => DInv w (claims_of_thread c t ++ cl) s' /\ thread_ok w t
  end.
Proof.
  intros HD. unfold put_start.
  match goal with |- context [if ?b then _ else _] => destruct b end.
  - intros H. injection H as <- <-. split; [apply frame_tn_refl|]. cbn. split; [exact HD|exact I].
  - destruct (ocn_put (w_cfg w) s (osize w o)) as [[wr|e] s1] eqn:E;
      destruct (ocn_put_inv w cl s _ _ _ HD E) as [[F1 [F2 F3]] H]; intros X; injection X as <- <-.
    + split; [split; assumption|]. destruct H as [H1 H2]. cbn. split; [exact H1|exact H2].
    + split; [split; assumption|]. exact H.
Qed.

Lemma step_put_start s tid o i :
  SInv w s -> thr_get (s_threads s) tid = None ->
  let r := match put_start w s o i with
           | (Err e, s1) => (s1, Done e [])
           | (Ok t, s1) => (thr_set s1 tid t, Parked)
           end in
  SInv w (fst r) /\ s_negs (fst r) = s_negs s.
Proof.
  intros HS Hg. destruct (put_start w s o i) as [[t|e] s1] eqn:E; cbn zeta;
    destruct (put_start_inv _ _ _ _ _ _ (s_d _ _ HS) E) as [[F1 F2] H]; cbn [fst].
  - destruct H as [H1 H2]. split; [|exact F2].
    eapply sinv_set; [exact HS|exact F1| |exact H2].
    rewrite (claims_del_none _ _ Hg). exact H1.
  - split; [|exact F2]. eapply sinv_same; [exact HS|exact F1|exact H].
Qed.

Lemma step_put_chunk s tid data :
  SInv w s ->
  let r := match thr_get (s_threads s) tid with
      | Some (TPut o i wr acc) =>
          let n := N.of_nat (length acc + length data) in
          if wr_size wr <? n then
            let '(_, s1) := finalize c s wr false in (thr_rm s1 tid, Done cInvalidArgument [])
          else
            let s1 := write_block s (wr_uid wr) (wr_off wr + N.of_nat (length acc)) data in
            (thr_set s1 tid (TPut o i wr (acc ++ data)), Parked)
      | Some (TPutExisting o i acc) =>
          let n := N.of_nat (length acc + length data) in
          if osize w o <? n then (thr_rm s tid, Done cInvalidArgument [])
          else (thr_set s tid (TPutExisting o i (acc ++ data)), Parked)
      | _ => (s, Bad)
      end in
  SInv w (fst r) /\ s_negs (fst r) = s_negs s.
Proof.
  intros HS. destruct (thr_get (s_threads s) tid) as [t|] eqn:Hg; [|cbn; split; [exact HS|reflexivity]].
  destruct (sinv_split s tid t HS Hg) as [HD Hok].
  destruct t as [o i wr acc|o i acc| | |]; try (cbn; split; [exact HS|reflexivity]).
  - cbn [claims_of_thread app] in HD. cbn zeta.
    destruct (wr_size wr <? N.of_nat (length acc + length data)) eqn:E.
    + destruct (finalize c s wr false) as [r s1] eqn:F.
      destruct (finalize_fail_inv _ _ _ _ _ _ HD F) as [[F1 F2] [H _]]. cbn [fst].
      split; [|exact F2]. eapply sinv_rm; [exact HS|exact F1|exact H].
    + apply N.ltb_ge in E. cbn [fst].
      destruct (write_frame s (wr_uid wr) (wr_off wr + N.of_nat (length acc)) data) as [F1 F2].
      split; [|exact F2]. eapply sinv_set; [exact HS|exact F1| |exact Hok].
      cbn [claims_of_thread app]. apply write_inv. exact HD. exact E.
  - cbn [claims_of_thread app] in HD. cbn zeta.
    destruct (osize w o <? N.of_nat (length acc + length data)); cbn [fst].
    + split; [|reflexivity]. eapply sinv_rm; [exact HS|reflexivity|exact HD].
    + split; [|reflexivity]. eapply sinv_set; [exact HS|reflexivity|exact HD|exact I].
Qed.

Lemma step_put_end s tid err :
  SInv w s ->
  let r := match thr_get (s_threads s) tid with
      | Some (TPut o i wr acc) =>
          let ok := Z.eqb err 0 && bytes_eqb acc (content w o) in
          match finalize c s wr ok with
          | (Err e, s1) => (thr_rm s1 tid, Done (if Z.eqb err 0 then e else err) [])
          | (Ok l, s1) => (thr_rm (index_put_all s1 (finalize_keys w o i) l) tid, Done cOK [])
          end
      | Some (TPutExisting o i acc) =>
          if negb (Z.eqb err 0) then (thr_rm s tid, Done err [])
          else if negb (bytes_eqb acc (content w o)) then (thr_rm s tid, Done cInvalidArgument [])
          else
            match index_get s (canonical_key o) with
            | None => (thr_rm s tid, Done cInternal [])
            | Some l => (thr_rm (index_put s (o, S i) l) tid, Done cOK [])
            end
      | _ => (s, Bad)
      end in
  SInv w (fst r) /\ s_negs (fst r) = s_negs s.
Proof.
  intros HS. destruct (thr_get (s_threads s) tid) as [t|] eqn:Hg; [|cbn; split; [exact HS|reflexivity]].
  destruct (sinv_split s tid t HS Hg) as [HD Hok].
  destruct t as [o i wr acc|o i acc| | |]; try (cbn; split; [exact HS|reflexivity]).
  - cbn [claims_of_thread app] in HD. cbn [thread_ok] in Hok. cbn zeta.
    destruct (Z.eqb err 0 && bytes_eqb acc (content w o)) eqn:Eok.
    + apply andb_prop in Eok. destruct Eok as [_ Eb]. apply bytes_eqb_eq in Eb. subst acc.
      destruct (finalize c s wr true) as [r s1] eqn:F.
      destruct (finalize_ok_inv _ _ _ o (finalize_keys w o i) _ _ HD Hok (finalize_keys_fst w o i) F)
        as [[F1 F2] H].
      destruct r as [nl|e]; cbn [fst].
      * destruct H as [H _].
        destruct (index_put_all_frame (finalize_keys w o i) s1 nl) as [G1 G2].
        split; [|exact (eq_trans G2 F2)]. eapply sinv_rm; [exact HS|exact (eq_trans G1 F1)|exact H].
      * destruct H as [H _]. split; [|exact F2]. eapply sinv_rm; [exact HS|exact F1|exact H].
    + destruct (finalize c s wr false) as [r s1] eqn:F.
      destruct (finalize_fail_inv _ _ _ _ _ _ HD F) as [[F1 F2] [H [e [-> _]]]]. cbn [fst].
      split; [|exact F2]. eapply sinv_rm; [exact HS|exact F1|exact H].
  - cbn [claims_of_thread app] in HD.
    destruct (negb (Z.eqb err 0)); cbn [fst];
      [split; [|reflexivity]; eapply sinv_rm; [exact HS|reflexivity|exact HD]|].
    destruct (negb (bytes_eqb acc (content w o))); cbn [fst];
      [split; [|reflexivity]; eapply sinv_rm; [exact HS|reflexivity|exact HD]|].
    destruct (index_get s (canonical_key o)) as [l|] eqn:Eg; cbn [fst];
      [|split; [|reflexivity]; eapply sinv_rm; [exact HS|reflexivity|exact HD]].
    destruct (index_get_some _ _ _ Eg) as [Hin Hv].
    split; [|reflexivity]. eapply sinv_rm; [exact HS|reflexivity|].
    eapply index_put_copy_inv; [exact HD|exact Hin|exact Hv|reflexivity].
Qed.

Lemma write0_inv cl s wr data :
  DInv w (CW wr [] :: cl) s -> N.of_nat (length data) <= wr_size wr ->
  DInv w (CW wr data :: cl) (write_block s (wr_uid wr) (wr_off wr) data).
Proof.
  intros HD Hl. pose proof (write_inv w cl s wr [] data HD) as H.
  cbn [length app Nat.add N.of_nat] in H. rewrite N.add_0_r in H. apply H. exact Hl.
Qed.

(** foreground copy of a complete object into a fresh allocation, then finalize *)
Lemma copy_finalize_inv cl s wr o keys r s' :
  DInv w (CW wr [] :: cl) s -> wr_size wr = osize w o -> (forall k, In k keys -> fst k = o) ->
  finalize c (write_block s (wr_uid wr) (wr_off wr) (content w o)) wr true = (r, s') ->
  frame_tn s s' /\
  match r with
  | Err e => DInv w cl s' /\ e <> cOK
  | Ok nl => DInv w cl (index_put_all s' keys nl) /\
             DInv w (CU wr o :: cl) s' /\ s_tbr s' <= wr_abs wr /\
             nl = {| l_abs := wr_abs wr; l_off := wr_off wr; l_size := wr_size wr |}
  end.
Proof.
  intros HD Hsz Hk F.
  assert (HW : DInv w (CW wr (content w o) :: cl) (write_block s (wr_uid wr) (wr_off wr) (content w o))).
  { apply write0_inv; [exact HD|]. rewrite Hsz. unfold osize. apply N.le_refl. }
  destruct (finalize_ok_inv _ _ _ _ keys _ _ HW Hsz Hk F) as [F1 H].
  split; [|exact H]. eapply frame_tn_trans; [apply write_frame|exact F1].
Qed.

Lemma open_with_refresh_inv cl s o k l fkeys r s' :
  DInv w cl s -> In (k, l) (s_index s) -> loc_valid s l = true -> fst k = o ->
  (forall k', In k' fkeys -> fst k' = o) ->
  open_with_refresh w s o l fkeys = (r, s') ->
  frame_tn s s' /\
  match r with
  | Err _ => DInv w cl s'
  | Ok t => DInv w (claims_of_thread c t ++ cl) s' /\ thread_ok w t /\
            exists uid l' rf fk, t = TGet o uid l' rf fk
  end.
Proof.
  intros HD Hin Hv Hk Hfk. subst o. unfold open_with_refresh.
  destruct (block_of_loc s l) as [b|] eqn:Eb;
    [|intros H; injection H as <- <-; split; [apply frame_tn_refl|exact HD]].
  pose proof (pin_loc_inv w cl s k l b HD Hin Hv Eb) as HP.
  pose proof (entry_size w cl s k l HD Hin Hv) as Hsz.
  destruct (needs_refresh s l).
  2:{ intros H; injection H as <- <-. split; [apply pin_frame|].
      cbn [claims_of_thread refresh_claims app]. split; [exact HP|].
      split; [|eauto]. cbn [thread_ok refresh_ok]; repeat split; auto; try (intros ? []). }
  destruct (ocn_put (w_cfg w) (pin s (b_uid b)) (l_size l)) as [[wr|e] s2] eqn:Eo;
    destruct (ocn_put_inv w _ _ _ _ _ HP Eo) as [FT H].
  2:{ intros X; injection X as <- <-. split.
      - eapply frame_tn_trans; [apply pin_frame|]. eapply frame_tn_trans; [apply frame_tin_tn, FT|apply unpin_frame].
      - exact (unpin_inv w (CR (b_uid b) l (fst k)) cl s2 H (cref_self_cr _ _ _)). }
  destruct H as [H Hws].
  destruct (lockstep (w_cfg w)).
  { intros X; injection X as <- <-. split.
    - eapply frame_tn_trans; [apply pin_frame|apply frame_tin_tn, FT].
    - cbn [claims_of_thread refresh_claims app]. split; [|split; [|eauto]].
      + eapply DInv_perm; [|exact H]. apply perm_swap.
      + cbn [thread_ok refresh_ok]; repeat split; auto; try (intros ? []). }
  rewrite (read_block_cr w _ s2 (b_uid b) l (fst k) H) by (right; left; reflexivity).
  destruct (finalize (w_cfg w) (write_block s2 (wr_uid wr) (wr_off wr) (content w (fst k))) wr true)
    as [r4 s4] eqn:F.
  assert (Hws' : wr_size wr = osize w (fst k)) by congruence.
  destruct (copy_finalize_inv _ _ _ _ fkeys _ _ H Hws' Hfk F) as [F4 H4].
  destruct r4 as [nl|e]; intros X; injection X as <- <-.
  - destruct H4 as [H4 _]. split.
    + eapply frame_tn_trans; [apply pin_frame|]. eapply frame_tn_trans; [apply frame_tin_tn, FT|].
      eapply frame_tn_trans; [exact F4|apply index_put_all_frame].
    + cbn [claims_of_thread refresh_claims app]. split; [exact H4|]. split; [|eauto]. cbn [thread_ok refresh_ok]; repeat split; auto; try (intros ? []).
  - destruct H4 as [H4 _]. split.
    + eapply frame_tn_trans; [apply pin_frame|]. eapply frame_tn_trans; [apply frame_tin_tn, FT|].
      eapply frame_tn_trans; [exact F4|apply unpin_frame].
    + exact (unpin_inv w (CR (b_uid b) l (fst k)) cl s4 H4 (cref_self_cr _ _ _)).
Qed.

Lemma get_open_inv cl s o i r s' :
  DInv w cl s -> get_open w s o i = (r, s') ->
  frame_tn s s' /\
  match r with
  | Err _ => DInv w cl s'
  | Ok t => DInv w (claims_of_thread c t ++ cl) s' /\ thread_ok w t /\
            exists uid l rf fk, t = TGet o uid l rf fk
  end.
Proof.
  intros HD. unfold get_open.
  destruct (least_specific s (lookup_keys w o i)) as [[k l]|] eqn:El;
    [|intros H; injection H as <- <-; split; [apply frame_tn_refl|exact HD]].
  destruct (least_specific_some _ _ _ _ El) as [Hk Hg].
  apply lookup_keys_fst in Hk.
  destruct (index_get_some _ _ _ Hg) as [Hin Hv].
  assert (Hnil : forall k', In k' (@nil key) -> fst k' = o) by (intros k' []).
  destruct (negb (needs_refresh s l)).
  { exact (open_with_refresh_inv cl s o k l _ _ _ HD Hin Hv Hk Hnil). }
  destruct (c_hier (w_cfg w)).
  - unfold sync_from_canonical.
    destruct (index_get s (canonical_key o)) as [cl0|] eqn:Ec.
    + destruct (index_get_some _ _ _ Ec) as [Hcin Hcv].
      destruct (needs_refresh s cl0).
      * refine (open_with_refresh_inv cl s o k l _ _ _ HD Hin Hv Hk _).
        intros k' [<-|[<-|[]]]; [reflexivity|exact Hk].
      * intros H.
        assert (HD1 : DInv w cl (index_put s k cl0)).
        { eapply index_put_copy_inv; [exact HD|exact Hcin|exact Hcv|]. rewrite Hk. reflexivity. }
        refine (open_with_refresh_inv cl (index_put s k cl0) o k cl0 [] r s' HD1 _ Hcv Hk Hnil H).
        left; reflexivity.
    + refine (open_with_refresh_inv cl s o k l _ _ _ HD Hin Hv Hk _).
      intros k' [<-|[<-|[]]]; [reflexivity|exact Hk].
  - refine (open_with_refresh_inv cl s o k l _ _ _ HD Hin Hv Hk _).
    intros k' [<-|[]]. exact Hk.
Qed.

Lemma step_get_open s tid o i :
  SInv w s -> thr_get (s_threads s) tid = None ->
  let r := match get_open w s o i with
           | (Err e, s1) => (s1, Done e [])
           | (Ok t, s1) => (thr_set s1 tid t, Parked)
           end in
  SInv w (fst r) /\ s_negs (fst r) = s_negs s.
Proof.
  intros HS Hg. destruct (get_open w s o i) as [[t|e] s1] eqn:E; cbn zeta;
    destruct (get_open_inv _ _ _ _ _ _ (s_d _ _ HS) E) as [[F1 F2] H]; cbn [fst].
  - destruct H as [H1 [H2 _]]. split; [|exact F2].
    eapply sinv_set; [exact HS|exact F1| |exact H2].
    rewrite (claims_del_none _ _ Hg). exact H1.
  - split; [|exact F2]. eapply sinv_same; [exact HS|exact F1|exact H].
Qed.

Lemma get_consume_inv cl s o uid l refresh fkeys code bytes s' :
  DInv w (CR uid l o :: refresh_claims c refresh o false ++ cl) s ->
  thread_ok w (TGet o uid l refresh fkeys) ->
  get_consume w s o uid l refresh fkeys = (code, bytes, s') ->
  frame_tn s s' /\ DInv w cl s' /\ (code = cOK -> bytes = content w o).
Proof.
  intros HD [Hsz [Hrf Hfk]]. unfold get_consume.
  rewrite (read_validated_cr w _ s uid l o HD) by (left; reflexivity).
  destruct refresh as [wr|]; cbn [refresh_claims app] in HD.
  - cbn [refresh_ok] in Hrf.
    assert (HD' : DInv w (CW wr [] :: CR uid l o :: cl) s).
    { eapply DInv_perm; [|exact HD]. apply perm_swap. }
    destruct (finalize (w_cfg w) (write_block s (wr_uid wr) (wr_off wr) (content w o)) wr true)
      as [r4 s4] eqn:F.
    assert (Hws : wr_size wr = osize w o) by congruence.
    destruct (copy_finalize_inv _ _ _ _ fkeys _ _ HD' Hws Hfk F) as [F4 H4].
    destruct r4 as [nl|e]; cbn [negb]; intros X.
    + rewrite Z.eqb_refl in X. injection X as <- <- <-. destruct H4 as [H4 _].
      split; [|split; [|reflexivity]].
      * eapply frame_tn_trans; [exact F4|]. eapply frame_tn_trans; [apply index_put_all_frame|apply unpin_frame].
      * exact (unpin_inv w (CR uid l o) cl _ H4 (cref_self_cr _ _ _)).
    + destruct H4 as [H4 He].
      assert (Ez : Z.eqb e cOK = false) by (apply Z.eqb_neq; exact He).
      rewrite Ez in X. injection X as <- <- <-.
      split; [|split; [|intros; contradiction]].
      * eapply frame_tn_trans; [exact F4|apply unpin_frame].
      * exact (unpin_inv w (CR uid l o) cl _ H4 (cref_self_cr _ _ _)).
  - cbn [negb]. rewrite Z.eqb_refl. intros X. injection X as <- <- <-.
    split; [apply unpin_frame|]. split; [|reflexivity].
    exact (unpin_inv w (CR uid l o) cl _ HD (cref_self_cr _ _ _)).
Qed.

Lemma step_get_consume s tid :
  SInv w s ->
  let r := match thr_get (s_threads s) tid with
      | Some (TGet o uid l refresh fkeys) =>
          let '(code, bytes, s1) := get_consume w s o uid l refresh fkeys in
          (thr_rm s1 tid, Done code bytes)
      | _ => (s, Bad)
      end in
  SInv w (fst r) /\ read_ok w s (OGetConsume tid) (fst r) (snd r).
Proof.
  intros HS. unfold read_ok.
  destruct (thr_get (s_threads s) tid) as [t|] eqn:Hg; [|cbn; split; [exact HS|split; [reflexivity|exact I]]].
  destruct (sinv_split s tid t HS Hg) as [HD Hok].
  destruct t as [| |o uid l refresh fkeys| |]; try (cbn; split; [exact HS|split; [reflexivity|exact I]]).
  cbn [claims_of_thread] in HD.
  destruct (get_consume w s o uid l refresh fkeys) as [[code bytes] s1] eqn:E.
  destruct (get_consume_inv _ _ _ _ _ _ _ _ _ _ HD Hok E) as [[F1 F2] [H Hb]]. cbn [fst snd].
  split; [|split; [exact F2|exact Hb]].
  eapply sinv_rm; [exact HS|exact F1|exact H].
Qed.

Lemma fm_tail_inv cl s o k l fkeys r s' :
  DInv w cl s -> In (k, l) (s_index s) -> loc_valid s l = true -> fst k = o ->
  (forall k', In k' fkeys -> fst k' = o) ->
  match block_of_loc s l with
  | None => (Err (-3)%Z, s)
  | Some b =>
      let s0 := pin s (b_uid b) in
      match ocn_put (w_cfg w) s0 (l_size l) with
      | (Err e, s1) => (Err e, unpin (w_cfg w) s1 (b_uid b))
      | (Ok wr, s1) =>
          let '(valid, bytes, s2) := read_validated w s1 o (b_uid b) l in
          let s2' := if valid then write_block s2 (wr_uid wr) (wr_off wr) bytes else s2 in
          let s2'' := unpin (w_cfg w) s2' (b_uid b) in
          match finalize (w_cfg w) s2'' wr valid with
          | (Err e, s3) => (Err (if valid then e else cInternal), s3)
          | (Ok nl, s3) => (Ok true, index_put_all s3 fkeys nl)
          end
      end
  end = (r, s') ->
  frame_tn s s' /\ DInv w cl s'.
Proof.
  intros HD Hin Hv Hk Hfk. subst o.
  destruct (block_of_loc s l) as [b|] eqn:Eb;
    [|intros H; injection H as <- <-; split; [apply frame_tn_refl|exact HD]].
  pose proof (pin_loc_inv w cl s k l b HD Hin Hv Eb) as HP.
  pose proof (entry_size w cl s k l HD Hin Hv) as Hsz.
  cbv zeta.
  destruct (ocn_put (w_cfg w) (pin s (b_uid b)) (l_size l)) as [[wr|e] s1] eqn:Eo;
    destruct (ocn_put_inv w _ _ _ _ _ HP Eo) as [FT H].
  2:{ intros X; injection X as <- <-. split.
      - eapply frame_tn_trans; [apply pin_frame|]. eapply frame_tn_trans; [apply frame_tin_tn, FT|apply unpin_frame].
      - exact (unpin_inv w (CR (b_uid b) l (fst k)) cl s1 H (cref_self_cr _ _ _)). }
  destruct H as [H Hws].
  rewrite (read_validated_cr w _ s1 (b_uid b) l (fst k) H) by (right; left; reflexivity).
  assert (Hws' : wr_size wr = osize w (fst k)) by congruence.
  pose proof (write0_inv _ _ _ (content w (fst k)) H) as HW.
  assert (Hle : N.of_nat (length (content w (fst k))) <= wr_size wr)
    by (rewrite Hws'; apply N.le_refl).
  specialize (HW Hle).
  assert (HU : DInv w (CW wr (content w (fst k)) :: cl)
                    (unpin (w_cfg w) (write_block s1 (wr_uid wr) (wr_off wr) (content w (fst k))) (b_uid b))).
  { refine (unpin_inv w (CR (b_uid b) l (fst k)) _ _ _ (cref_self_cr _ _ _)).
    eapply DInv_perm; [|exact HW]. apply perm_swap. }
  destruct (finalize (w_cfg w) _ wr true) as [r3 s3] eqn:F.
  destruct (finalize_ok_inv _ _ _ _ fkeys _ _ HU Hws' Hfk F) as [F3 H3].
  assert (FR : frame_tn s s3).
  { eapply frame_tn_trans; [apply pin_frame|]. eapply frame_tn_trans; [apply frame_tin_tn, FT|].
    eapply frame_tn_trans; [apply write_frame|]. eapply frame_tn_trans; [apply unpin_frame|exact F3]. }
  destruct r3 as [nl|e]; intros X; injection X as <- <-.
  - destruct H3 as [H3 _]. split; [|exact H3].
    eapply frame_tn_trans; [exact FR|apply index_put_all_frame].
  - destruct H3 as [H3 _]. split; [exact FR|exact H3].
Qed.

Lemma fm_refresh_one_inv cl s o i r s' :
  DInv w cl s -> fm_refresh_one w s o i = (r, s') -> frame_tn s s' /\ DInv w cl s'.
Proof.
  intros HD. unfold fm_refresh_one. cbv zeta.
  destruct (least_specific s (lookup_keys w o i)) as [[k l]|] eqn:El;
    [|intros H; injection H as <- <-; split; [apply frame_tn_refl|exact HD]].
  destruct (least_specific_some _ _ _ _ El) as [Hk Hg].
  apply lookup_keys_fst in Hk.
  destruct (index_get_some _ _ _ Hg) as [Hin Hv].
  destruct (negb (needs_refresh s l));
    [intros H; injection H as <- <-; split; [apply frame_tn_refl|exact HD]|].
  destruct (c_hier (w_cfg w)).
  - unfold sync_from_canonical.
    assert (Hfk : forall k', In k' [canonical_key o; k] -> fst k' = o)
      by (intros k' [<-|[<-|[]]]; [reflexivity|exact Hk]).
    destruct (index_get s (canonical_key o)) as [cl0|] eqn:Ec.
    + destruct (index_get_some _ _ _ Ec) as [Hcin Hcv].
      destruct (needs_refresh s cl0).
      * apply (fm_tail_inv cl s o k l _ r s' HD Hin Hv Hk Hfk).
      * intros H; injection H as <- <-. split; [apply index_put_frame|].
        eapply index_put_copy_inv; [exact HD|exact Hcin|exact Hcv|]. rewrite Hk. reflexivity.
    + apply (fm_tail_inv cl s o k l _ r s' HD Hin Hv Hk Hfk).
  - apply (fm_tail_inv cl s o k l _ r s' HD Hin Hv Hk).
    intros k' [<-|[]]. exact Hk.
Qed.

Lemma fm_phase2_inv cl todo : forall s missing r s',
  DInv w cl s -> fm_phase2 w s todo missing = (r, s') -> frame_tn s s' /\ DInv w cl s'.
Proof.
  induction todo as [|[pos [o i]] t IH]; intros s missing r s' HD; cbn [fm_phase2].
  - intros H; injection H as <- <-. split; [apply frame_tn_refl|exact HD].
  - destruct (fm_refresh_one w s o i) as [[[|]|e] s1] eqn:E;
      destruct (fm_refresh_one_inv _ _ _ _ _ _ HD E) as [F1 H1].
    + intros H. destruct (IH _ _ _ _ H1 H) as [F2 H2]. split; [eapply frame_tn_trans; eassumption|exact H2].
    + intros H. destruct (IH _ _ _ _ H1 H) as [F2 H2]. split; [eapply frame_tn_trans; eassumption|exact H2].
    + intros H; injection H as <- <-. split; assumption.
Qed.

Lemma step_find_missing s ds :
  SInv w s ->
  let r := match find_missing w s ds with
           | (Err e, s1) => (s1, Missing e [])
           | (Ok m, s1) => (s1, Missing cOK (sort_nat m))
           end in
  SInv w (fst r) /\ s_negs (fst r) = s_negs s.
Proof.
  intros HS. unfold find_missing.
  match goal with |- context [fm_phase2 w s ?t ?m] => destruct (fm_phase2 w s t m) as [[m'|e] s1] eqn:E end;
    destruct (fm_phase2_inv _ _ _ _ _ _ (s_d _ _ HS) E) as [[F1 F2] H]; cbn zeta; cbn [fst];
    (split; [|exact F2]); eapply sinv_same; [exact HS|exact F1|exact H|exact HS|exact F1|exact H].
Qed.

Definition gfc_tail (s : state) (tid p i : nat) (pl : loc) (pk : key) (nr : bool) : state * out :=
  match block_of_loc s pl with
  | None => (s, Bad)
  | Some b =>
      let s1 := pin s (b_uid b) in
      if nr then
        match ocn_put (w_cfg w) s1 (l_size pl) with
        | (Err e, s2) => (unpin (w_cfg w) s2 (b_uid b), Done e [])
        | (Ok wr, s2) =>
            let s3 :=
              if lockstep (w_cfg w) then s2
              else unpin (w_cfg w) (write_block s2 (wr_uid wr) (wr_off wr)
                                        (read_block s2 (b_uid b) (l_off pl) (l_size pl)))
                         (wr_uid wr) in
            (thr_set s3 tid (TGfc p i (b_uid b) pl (Some wr) pk), Parked)
        end
      else (thr_set s1 tid (TGfc p i (b_uid b) pl None pk), Parked)
  end.

Lemma gfc_tail_inv s tid p i ch pl nr :
  SInv w s -> thr_get (s_threads s) tid = None ->
  In (flat_key (w_cfg w) p i, pl) (s_index s) -> loc_valid s pl = true ->
  let r := gfc_tail s tid p i pl (flat_key (w_cfg w) p i) nr in
  SInv w (fst r) /\ read_ok w s (OGfcStart tid p i ch) (fst r) (snd r).
Proof.
  intros HS Hg Hin Hv. unfold gfc_tail, read_ok.
  pose proof (s_d _ _ HS) as HD.
  destruct (block_of_loc s pl) as [b|] eqn:Eb; [|cbn; split; [exact HS|split; [reflexivity|exact I]]].
  pose proof (pin_loc_inv w _ s _ pl b HD Hin Hv Eb) as HP. rewrite flat_key_fst in HP.
  pose proof (entry_size w _ s _ pl HD Hin Hv) as Hsz. rewrite flat_key_fst in Hsz.
  cbv zeta. destruct nr.
  2:{ cbn [fst snd]. split; [|split; [reflexivity|exact I]].
      eapply sinv_set; [exact HS|reflexivity| |].
      - rewrite (claims_del_none _ _ Hg). exact HP.
      - cbn [thread_ok refresh_ok]. auto. }
  destruct (ocn_put (w_cfg w) (pin s (b_uid b)) (l_size pl)) as [[wr|e] s2] eqn:Eo;
    destruct (ocn_put_inv w _ _ _ _ _ HP Eo) as [[F1 [_ F3]] H]; cbn [fst snd].
  2:{ destruct (unpin_frame (w_cfg w) s2 (b_uid b)) as [G1 G3]. split.
      - eapply sinv_same; [exact HS|exact (eq_trans G1 F1)|].
        exact (unpin_inv w (CR (b_uid b) pl p) _ s2 H (cref_self_cr _ _ _)).
      - split; [exact (eq_trans G3 F3)|]. intros X. exfalso. exact (proj2 (ocn_put_frame _ _ _ _ _ Eo) X). }
  destruct H as [H Hws].
  match goal with |- SInv w (thr_set ?s3 _ _) /\ _ => assert (F : frame_tn (pin s (b_uid b)) s3) end.
  { destruct (lockstep (w_cfg w)); [split; assumption|].
    eapply frame_tn_trans; [split; [exact F1|exact F3]|].
    eapply frame_tn_trans; [apply write_frame|apply unpin_frame]. }
  destruct F as [T N].
  split; [|split; [exact N|exact I]].
  eapply sinv_set; [exact HS|exact T| |cbn [thread_ok refresh_ok]; auto].
  rewrite (claims_del_none _ _ Hg). cbn [claims_of_thread refresh_claims]. unfold c.
  destruct (lockstep (w_cfg w)); cbn [negb app].
  - eapply DInv_perm; [|exact H]. apply perm_swap.
  - rewrite (read_block_cr w _ s2 (b_uid b) pl p H) by (right; left; reflexivity).
    eapply DInv_perm; [apply perm_swap|].
    eapply cw_to_cu_inv; [|reflexivity|].
    + apply write0_inv; [exact H|]. rewrite Hws, Hsz. apply N.le_refl.
    + rewrite Hws, Hsz. reflexivity.
Qed.

Lemma step_gfc_start s tid p i ch :
  SInv w s ->
  let r := step w s (OGfcStart tid p i ch) in
  SInv w (fst r) /\ read_ok w s (OGfcStart tid p i ch) (fst r) (snd r).
Proof.
  intros HS. pose proof (s_d _ _ HS) as HD.
  assert (Triv : SInv w (fst (s, Bad)) /\ read_ok w s (OGfcStart tid p i ch) (fst (s, Bad)) (snd (s, Bad))).
  { cbn [fst snd]. split; [exact HS|]. split; [reflexivity|exact I]. }
  unfold step. cbn [may_take_refresh_lock is_corrupt andb].
  destruct (refresh_lock_held s); [exact Triv|].
  destruct (thr_get (s_threads s) tid) as [t0|] eqn:Hg; [exact Triv|].
  destruct (c_hier (w_cfg w)).
  - destruct (get_open w s p i) as [[t|e] s1] eqn:E;
      destruct (get_open_inv _ _ _ _ _ _ HD E) as [[F1 F2] H].
    + destruct H as [H1 [H2 [uid [l [rf [fk ->]]]]]]. cbn zeta. cbn [fst snd].
      split; [|split; [exact F2|exact I]].
      eapply sinv_set; [exact HS|exact F1| |exact H2].
      rewrite (claims_del_none _ _ Hg). exact H1.
    + cbn zeta. cbn [fst snd]. split; [|split; [exact F2|exact I]].
      eapply sinv_set; [exact HS|exact F1| |exact I].
      rewrite (claims_del_none _ _ Hg). exact H.
  - cbv zeta.
    destruct (index_get s (flat_key (w_cfg w) p i)) as [pl|] eqn:Ep.
    2:{ cbn [fst snd]. split; [exact HS|]. split; [reflexivity|]. intros X. discriminate X. }
    destruct (index_get_some _ _ _ Ep) as [Hin Hv].
    destruct (needs_refresh s pl).
    { exact (gfc_tail_inv s tid p i ch pl true HS Hg Hin Hv). }
    destruct (index_get s (flat_key (w_cfg w) ch i)) as [cl0|] eqn:Ec.
    2:{ exact (gfc_tail_inv s tid p i ch pl false HS Hg Hin Hv). }
    destruct (block_of_loc s cl0) as [b|] eqn:Eb.
    2:{ exact (gfc_tail_inv s tid p i ch pl false HS Hg Hin Hv). }
    destruct (index_get_some _ _ _ Ec) as [Hcin Hcv].
    pose proof (pin_loc_inv w _ s _ cl0 b HD Hcin Hcv Eb) as HP. rewrite flat_key_fst in HP.
    pose proof (entry_size w _ s _ cl0 HD Hcin Hcv) as Hsz. rewrite flat_key_fst in Hsz.
    destruct (get_consume w (pin s (b_uid b)) ch (b_uid b) cl0 None []) as [[code bytes] s2] eqn:E.
    assert (Hok : thread_ok w (TGet ch (b_uid b) cl0 None [])).
    { cbn [thread_ok refresh_ok]. repeat split; auto. intros ? []. }
    destruct (get_consume_inv (claims (w_cfg w) s) (pin s (b_uid b)) ch (b_uid b) cl0 None [] code bytes s2 HP Hok E) as [[F1 F2] [H Hb]].
    cbn [fst snd]. split; [|split; [exact F2|exact Hb]].
    eapply sinv_same; [exact HS|exact F1|exact H].
Qed.

Definition mk_children (i : nat) (ploc : loc) (slices : list (nat * (N * N))) (s' : state) : state :=
  fold_left (fun acc '(cho, (off, len)) =>
               index_put acc (flat_key (w_cfg w) cho i)
                         {| l_abs := l_abs ploc; l_off := l_off ploc + off; l_size := len |})
            slices s'.

Lemma mk_inv cl i pk pl slices : forall s,
  DInv w cl s -> In (pk, pl) (s_index s) -> loc_valid s pl = true -> slices_ok w (fst pk) slices ->
  DInv w cl (mk_children i pl slices s) /\ frame_tn s (mk_children i pl slices s).
Proof.
  unfold mk_children. induction slices as [|[cho [off len]] t IH]; intros s HD Hin Hv Hs; cbn [fold_left].
  - split; [exact HD|apply frame_tn_refl].
  - destruct (Hs cho off len (or_introl eq_refl)) as [Hc Hl].
    assert (HD1 : DInv w cl (index_put s (flat_key (w_cfg w) cho i)
                    {| l_abs := l_abs pl; l_off := l_off pl + off; l_size := len |})).
    { eapply index_put_sub_inv; [exact HD|exact Hin|exact Hv| |exact Hl].
      rewrite flat_key_fst. exact Hc. }
    destruct (IH _ HD1) as [A B].
    + cbn. right. exact Hin.
    + exact Hv.
    + intros a b d H. apply Hs. right. exact H.
    + split; [exact A|]. eapply frame_tn_trans; [apply index_put_frame|exact B].
Qed.

Lemma cu_valid cl s wr o :
  DInv w cl s -> In (CU wr o) cl -> s_tbr s <= wr_abs wr ->
  loc_valid s {| l_abs := wr_abs wr; l_off := wr_off wr; l_size := wr_size wr |} = true.
Proof.
  intros HD Hin Ht. pose proof (c_claims _ _ _ (d_c _ _ _ HD) _ Hin) as H. cbn [claim_ok] in H.
  destruct H as [_ [H _]]. unfold abs_end in H. unfold loc_valid. cbn [l_abs].
  apply andb_true_intro. split; [apply N.leb_le; exact Ht|apply N.ltb_lt; exact H].
Qed.

(** publishing a completed refresh copy of the parent and creating the children *)
Lemma publish_mk_inv cl s wr p pk i slices :
  DInv w (CU wr p :: cl) s -> s_tbr s <= wr_abs wr -> fst pk = p -> slices_ok w p slices ->
  let nl := {| l_abs := wr_abs wr; l_off := wr_off wr; l_size := wr_size wr |} in
  DInv w cl (mk_children i nl slices (index_put s pk nl)) /\
  frame_tn s (mk_children i nl slices (index_put s pk nl)).
Proof.
  intros HD Ht Hk Hs nl.
  assert (HP : DInv w (CU wr p :: cl) (index_put s pk nl)).
  { apply (cu_publish_inv w _ s wr p [pk] HD); [left; reflexivity|exact Ht|].
    intros k [<-|[]]. exact Hk. }
  assert (Hv : loc_valid (index_put s pk nl) nl = true).
  { apply (cu_valid _ _ wr p HP); [left; reflexivity|exact Ht]. }
  destruct (mk_inv (CU wr p :: cl) i pk nl slices _ HP) as [A B].
  - left. reflexivity.
  - exact Hv.
  - rewrite Hk. exact Hs.
  - split; [eapply DInv_drop, A|]. eapply frame_tn_trans; [apply index_put_frame|exact B].
Qed.

Lemma step_gfc_slice s tid slices :
  SInv w s -> step_wf w s (OGfcSlice tid slices) ->
  let r := step w s (OGfcSlice tid slices) in
  SInv w (fst r) /\ read_ok w s (OGfcSlice tid slices) (fst r) (snd r).
Proof.
  intros HS Hswf. unfold step_wf in Hswf. unfold read_ok.
  unfold step. cbn [may_take_refresh_lock is_corrupt andb].
  destruct (thr_get (s_threads s) tid) as [t|] eqn:Hg;
    [|cbn [fst snd]; split; [exact HS|split; [reflexivity|exact I]]].
  destruct (sinv_split s tid t HS Hg) as [HD Hok].
  destruct t as [| |o uid l refresh fkeys|p i uid pl refresh pk|e];
    try (cbn [fst snd]; split; [exact HS|split; [reflexivity|exact I]]).
  - (* hierarchical: a parked Get *)
    cbn [claims_of_thread] in HD.
    destruct (get_consume w s o uid l refresh fkeys) as [[code bytes] s1] eqn:E.
    destruct (get_consume_inv _ _ _ _ _ _ _ _ _ _ HD Hok E) as [[F1 F2] [H Hb]].
    cbn [fst snd]. split; [eapply sinv_rm; [exact HS|exact F1|exact H]|].
    split; [exact F2|].
    destruct (Z.eqb code cOK) eqn:Ec.
    + apply Z.eqb_eq in Ec. intros _. rewrite (Hb Ec). reflexivity.
    + apply Z.eqb_neq in Ec. intros X. contradiction.
  - (* flat: a parked composite read *)
    cbn [claims_of_thread] in HD. destruct Hok as [Hsz [Hrf Hpk]].
    rewrite (read_validated_cr w _ s uid pl p HD) by (left; reflexivity).
    cbn [negb]. cbv zeta.
    pose proof (unpin_inv w (CR uid pl p) _ s HD (cref_self_cr _ _ _)) as HU. cbn [c_uid] in HU. unfold c in HU.
    destruct (unpin_frame (w_cfg w) s uid) as [U1 U2].
    assert (Hpkf : fst pk = p) by (rewrite Hpk; apply flat_key_fst).
    set (rest := claims_of_threads c (thr_del (s_threads s) tid)) in *.
    destruct refresh as [wr|]; cbn [refresh_claims app] in HU.
    + cbn [refresh_ok] in Hrf.
      assert (Hws : wr_size wr = osize w p) by congruence.
      destruct (lockstep (w_cfg w)); cbn [negb] in HU.
      * destruct (finalize (w_cfg w) (write_block (unpin (w_cfg w) s uid) (wr_uid wr) (wr_off wr) (content w p)) wr true)
          as [r3 s3] eqn:F.
        assert (Hk1 : forall k, In k [pk] -> fst k = p) by (intros k [<-|[]]; exact Hpkf).
        destruct (copy_finalize_inv _ _ _ _ [pk] _ _ HU Hws Hk1 F) as [[F3 F4] H3].
        destruct r3 as [nl|e]; cbn [fst snd].
        -- destruct H3 as [_ [H3 [Ht ->]]].
           destruct (publish_mk_inv rest s3 wr p pk i slices H3 Ht Hpkf Hswf) as [A [B1 B2]].
           split; [|split; [|intros _; reflexivity]].
           ++ eapply sinv_rm; [exact HS| |exact A]. exact (eq_trans B1 (eq_trans F3 U1)).
           ++ exact (eq_trans B2 (eq_trans F4 U2)).
        -- destruct H3 as [H3 He]. split; [|split; [|intros X; contradiction]].
           ++ eapply sinv_rm; [exact HS| |exact H3]. exact (eq_trans F3 U1).
           ++ exact (eq_trans F4 U2).
      * unfold fin_check. destruct (wr_abs wr <? s_tbr (unpin (w_cfg w) s uid)) eqn:Et; cbn [fst snd].
        -- split; [|split; [exact U2|intros X; discriminate X]].
           eapply sinv_rm; [exact HS|exact U1|]. eapply DInv_drop, HU.
        -- apply N.ltb_ge in Et.
           destruct (publish_mk_inv rest _ wr p pk i slices HU Et Hpkf Hswf) as [A [B1 B2]].
           split; [|split; [|intros _; reflexivity]].
           ++ eapply sinv_rm; [exact HS| |exact A]. exact (eq_trans B1 U1).
           ++ exact (eq_trans B2 U2).
    + destruct (index_get (unpin (w_cfg w) s uid) pk) as [pl'|] eqn:Eg; cbn [fst snd].
      * destruct (index_get_some _ _ _ Eg) as [Hin Hv].
        destruct (mk_inv rest i pk pl' slices _ HU Hin Hv) as [A [B1 B2]]; [rewrite Hpkf; exact Hswf|].
        split; [|split; [|intros _; reflexivity]].
        -- eapply sinv_rm; [exact HS| |exact A]. exact (eq_trans B1 U1).
        -- exact (eq_trans B2 U2).
      * split; [|split; [exact U2|intros _; reflexivity]].
        eapply sinv_rm; [exact HS|exact U1|exact HU].
  - (* hierarchical: the slicer was handed an error *)
    cbn [claims_of_thread app] in HD. cbn [fst snd].
    split; [|split; [reflexivity|intros _; exact I]].
    eapply sinv_rm; [exact HS|reflexivity|exact HD].
Qed.

Theorem step_all s e :
  SInv w s -> is_corrupt e = false -> step_wf w s e ->
  SInv w (fst (step w s e)) /\ read_ok w s e (fst (step w s e)) (snd (step w s e)).
Proof.
  intros HS Hc Hswf.
  destruct e as [tid o i|tid data|tid err|tid o i|tid|ds|tid p i ch|tid slices|r off len].
  - unfold step. cbn [may_take_refresh_lock is_corrupt andb].
    destruct (thr_get (s_threads s) tid) as [t|] eqn:Hg.
    + cbn [fst snd]. split; [exact HS|]. split; [reflexivity|exact I].
    + destruct (step_put_start s tid o i HS Hg) as [A B].
      split; [exact A|]. split; [exact B|].
      exact I.
  - unfold step. cbn [may_take_refresh_lock is_corrupt andb].
    destruct (step_put_chunk s tid data HS) as [A B].
    split; [exact A|]. split; [exact B|].
    exact I.
  - unfold step. cbn [may_take_refresh_lock is_corrupt andb].
    destruct (step_put_end s tid err HS) as [A B].
    split; [exact A|]. split; [exact B|].
    exact I.
  - unfold step. cbn [may_take_refresh_lock is_corrupt andb].
    destruct (thr_get (s_threads s) tid) as [t|] eqn:Hg.
    + cbn [fst snd]. split; [exact HS|]. split; [reflexivity|exact I].
    + destruct (step_get_open s tid o i HS Hg) as [A B].
      split; [exact A|]. split; [exact B|].
      exact I.
  - unfold step. cbn [may_take_refresh_lock is_corrupt andb].
    exact (step_get_consume s tid HS).
  - unfold step. cbn [may_take_refresh_lock is_corrupt andb].
    destruct (refresh_lock_held s).
    + cbn [fst snd]. split; [exact HS|]. split; [reflexivity|exact I].
    + destruct (step_find_missing s ds HS) as [A B].
      split; [exact A|]. split; [exact B|].
      exact I.
  - exact (step_gfc_start s tid p i ch HS).
  - exact (step_gfc_slice s tid slices HS Hswf).
  - discriminate Hc.
Qed.

End Steps.
