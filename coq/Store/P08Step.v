(** C08/C10 — what one atomic step of the store model does to the counters
    and to the set of stored index entries (step frame [sfr]), and the fact
    that a negative integrity verdict always fails the operation with
    INTERNAL. *)
From Coq Require Import List NArith ZArith Bool Arith Lia ZifyN ZifyNat ZifyBool.
From BBS Require Import Store.Model Store.Basics Store.P08Frame.
Import ListNotations.
Open Scope N_scope.

(** step frame: the index only grows, [n] negative verdicts were counted,
    the quarantine / release counters and the top of the block list are monotone *)
Record sfr (n : nat) (s s' : state) : Prop := {
  sf_index : exists new, s_index s' = new ++ s_index s;
  sf_negs : s_negs s' = (n + s_negs s)%nat;
  sf_tbr : s_tbr s <= s_tbr s';
  sf_rel : s_released s <= s_released s';
  sf_hi : hiM s <= hiM s';
}.

Lemma sfr_refl s : sfr 0 s s.
Proof. constructor; [exists []; reflexivity|reflexivity|apply N.le_refl..]. Qed.
Lemma sfr_trans n m a b c : sfr n a b -> sfr m b c -> sfr (m + n) a c.
Proof.
  intros [[n1 E1] N1 T1 R1 H1] [[n2 E2] N2 T2 R2 H2]. constructor.
  - exists (n2 ++ n1). rewrite E2, E1, app_assoc. reflexivity.
  - rewrite N2, N1. apply Nat.add_assoc.
  - exact (N.le_trans _ _ _ T1 T2).
  - exact (N.le_trans _ _ _ R1 R2).
  - exact (N.le_trans _ _ _ H1 H2).
Qed.
Lemma sfr_trans0n n a b c : sfr 0 a b -> sfr n b c -> sfr n a c.
Proof. intros H1 H2. pose proof (sfr_trans _ _ _ _ _ H1 H2) as H. rewrite Nat.add_0_r in H. exact H. Qed.
Lemma sfr_transn0 n a b c : sfr n a b -> sfr 0 b c -> sfr n a c.
Proof. intros H1 H2. exact (sfr_trans _ _ _ _ _ H1 H2). Qed.
Lemma sfr_step n s s1 s2 : s_index s2 = s_index s1 -> s_negs s2 = s_negs s1 -> s_tbr s1 <= s_tbr s2 ->
  s_released s1 <= s_released s2 -> hiM s1 <= hiM s2 -> sfr n s s1 -> sfr n s s2.
Proof.
  intros Ei En T2 R2 H2 [[nw E] N1 T1 R1 H1]. constructor.
  - exists nw. congruence.
  - congruence.
  - exact (N.le_trans _ _ _ T1 T2).
  - exact (N.le_trans _ _ _ R1 R2).
  - exact (N.le_trans _ _ _ H1 H2).
Qed.
Lemma sfr_afr_step n s s1 s2 : afr s1 s2 -> sfr n s s1 -> sfr n s s2.
Proof. intros []. apply sfr_step; assumption. Qed.
Lemma sfr_xfr_step n s s1 s2 : xfr s1 s2 -> sfr n s s1 -> sfr n s s2.
Proof. intros H. apply sfr_afr_step, xfr_afr, H. Qed.
Lemma sfr_pin n s s1 u : sfr n s s1 -> sfr n s (pin s1 u).
Proof. apply sfr_xfr_step, pin_xfr. Qed.
Lemma sfr_unpin n s s1 c u : sfr n s s1 -> sfr n s (unpin c s1 u).
Proof. apply sfr_xfr_step, unpin_xfr. Qed.
Lemma sfr_write_block n s s1 u off d : sfr n s s1 -> sfr n s (write_block s1 u off d).
Proof. apply sfr_xfr_step, write_block_xfr. Qed.
Lemma sfr_index_put n s s1 k l : sfr n s s1 -> sfr n s (index_put s1 k l).
Proof. intros [[nw E] ? ? ? ?]. constructor; unfold hiM in *; cbn; try assumption. exists ((k, l) :: nw). rewrite E. reflexivity. Qed.
Lemma sfr_index_put_all n s s1 ks l : sfr n s s1 -> sfr n s (index_put_all s1 ks l).
Proof. revert s1. induction ks as [|k t IH]; intros s1 H; cbn [index_put_all]; [assumption|]. apply IH, sfr_index_put, H. Qed.
Lemma sfr_thr_set n s s1 id t : sfr n s s1 -> sfr n s (thr_set s1 id t).
Proof. apply sfr_step; reflexivity || apply N.le_refl. Qed.
Lemma sfr_thr_rm n s s1 id : sfr n s s1 -> sfr n s (thr_rm s1 id).
Proof. apply sfr_step; reflexivity || apply N.le_refl. Qed.
Lemma sfr_upd_dev n s s1 d : sfr n s s1 -> sfr n s (upd_dev s1 d).
Proof. apply sfr_step; reflexivity || apply N.le_refl. Qed.
Lemma sfr_finalize n s s1 c wr ok : sfr n s s1 -> sfr n s (snd (finalize c s1 wr ok)).
Proof. rewrite finalize_state. apply sfr_unpin. Qed.

Create HintDb sfr.
#[export] Hint Resolve sfr_refl sfr_pin sfr_unpin sfr_write_block sfr_index_put sfr_index_put_all
  sfr_thr_set sfr_thr_rm sfr_upd_dev sfr_afr_step sfr_xfr_step sfr_finalize : sfr.

Lemma read_validated_true w s o u l bytes s' :
  read_validated w s o u l = (true, bytes, s') -> s' = s.
Proof. unfold read_validated. dm; iinv. reflexivity. Qed.

Lemma read_validated_false w s o u l bytes s' :
  read_validated w s o u l = (false, bytes, s') ->
  c_validate (w_cfg w) = true /\ bytes = read_block s u (l_off l) (l_size l) /\ bytes <> content w o /\
  s' = bump_negs (upd_rel s (s_released s) (N.max (s_tbr s) (l_abs l + 1))).
Proof.
  unfold read_validated. destruct (c_validate (w_cfg w)); cbn [andb]; [|iinv].
  destruct (bytes_eqb _ _) eqn:E; cbn [negb]; iinv.
  repeat split. intros C. apply bytes_eqb_eq in C. congruence.
Qed.

(** state after a detection on [l]: only the quarantine boundary and the ghost counter move *)
Record dfr (l : loc) (s s' : state) : Prop := {
  df_index : s_index s' = s_index s;
  df_threads : s_threads s' = s_threads s;
  df_negs : s_negs s' = S (s_negs s);
  df_tbr : s_tbr s' = N.max (s_tbr s) (l_abs l + 1);
  df_rel : s_released s' = s_released s;
  df_blocks : s_blocks s' = s_blocks s;
}.
Lemma read_validated_false_dfr w s o u l bytes s' :
  read_validated w s o u l = (false, bytes, s') -> dfr l s s'.
Proof. intros H. apply read_validated_false in H as (_ & _ & _ & ->). constructor; reflexivity. Qed.
Lemma dfr_sfr l s s' : dfr l s s' -> sfr 1 s s'.
Proof.
  intros [I T Ng B R Bl]. constructor.
  - exists []. assumption.
  - rewrite Ng. reflexivity.
  - rewrite B. apply N.le_max_l.
  - rewrite R. apply N.le_refl.
  - unfold hiM. rewrite R, Bl. apply N.le_refl.
Qed.

Lemma sfr_dfr_step l s s1 s2 : dfr l s1 s2 -> sfr 0 s s1 -> sfr 1 s s2.
Proof. intros H1 H2. apply dfr_sfr in H1. eapply sfr_trans0n; eassumption. Qed.

Lemma open_with_refresh_sfr w s o l fk r s' : open_with_refresh w s o l fk = (r, s') -> sfr 0 s s'.
Proof.
  unfold open_with_refresh. destruct (block_of_loc s l) as [b|]; [|iinv; auto with sfr].
  destruct (needs_refresh s l); [|iinv; auto with sfr].
  destruct (ocn_put (w_cfg w) (pin s (b_uid b)) (l_size l)) as [[wr|e] s2] eqn:E; apply ocn_put_afr in E.
  - destruct (lockstep (w_cfg w)); [iinv; eauto with sfr|].
    destruct (finalize _ _ wr true) as [[nl|e] s4] eqn:F; apply finalize_xfr in F;
      iinv; eauto 10 with sfr.
  - iinv; eauto with sfr.
Qed.

Lemma sync_from_canonical_sfr s o k cl s' : sync_from_canonical s o k = Some (cl, s') ->
  s' = index_put s k cl /\ index_get s (canonical_key o) = Some cl.
Proof. unfold sync_from_canonical. dm; iinv. auto. Qed.

Lemma get_open_via w s o i r s' : get_open w s o i = (r, s') ->
  match least_specific s (lookup_keys w o i) with
  | None => r = Err cNotFound /\ s' = s
  | Some (k, l) =>
      exists s1 l1 fk, open_with_refresh w s1 o l1 fk = (r, s') /\
        (s1 = s \/ exists cl, s1 = index_put s k cl) /\ (exists k', index_get s k' = Some l1) /\
        Forall (fun k' => k' = canonical_key o \/ k' = k) fk
  end.
Proof.
  unfold get_open. destruct (least_specific s (lookup_keys w o i)) as [[k l]|] eqn:L; [|iinv; auto].
  apply least_specific_some in L as [_ Lg]. intros H.
  destruct (negb (needs_refresh s l)).
  { exists s, l, []. split; [exact H|split; [left; reflexivity|split; [exists k; exact Lg|constructor]]]. }
  destruct (c_hier (w_cfg w)).
  2:{ exists s, l, [k]. split; [exact H|split; [left; reflexivity|split; [exists k; exact Lg|]]].
      constructor; [right; reflexivity|constructor]. }
  destruct (sync_from_canonical s o k) as [[cl s1]|] eqn:E.
  - apply sync_from_canonical_sfr in E as [-> Ec]. exists (index_put s k cl), cl, [].
    split; [exact H|split; [right; exists cl; reflexivity|split; [exists (canonical_key o); exact Ec|constructor]]].
  - exists s, l, [canonical_key o; k]. split; [exact H|split; [left; reflexivity|split; [exists k; exact Lg|]]].
    constructor; [left; reflexivity|constructor; [right; reflexivity|constructor]].
Qed.

Lemma get_open_sfr w s o i r s' : get_open w s o i = (r, s') -> sfr 0 s s'.
Proof.
  intros H. apply get_open_via in H. destruct (least_specific _ _) as [[k l]|]; [|destruct H as [_ ->]; auto with sfr].
  destruct H as (s1 & l1 & fk & H & [->|[cl ->]] & _); apply open_with_refresh_sfr in H; [assumption|].
  eapply sfr_trans0n; [|exact H]. auto with sfr.
Qed.

(** a reader: either the bytes passed validation and nothing is counted, or
    a detection happened and the consumer gets INTERNAL and no bytes *)
Lemma get_consume_cases w s o uid l refresh fk code bytes s' :
  get_consume w s o uid l refresh fk = (code, bytes, s') ->
  (fst (fst (read_validated w s o uid l)) = true /\ sfr 0 s s') \/
  (exists b s1, read_validated w s o uid l = (false, b, s1) /\ xfr s1 s' /\ code = cInternal /\ bytes = []).
Proof.
  unfold get_consume. destruct (read_validated w s o uid l) as [[valid b] s1] eqn:R.
  destruct valid.
  - apply read_validated_true in R; subst s1.
    destruct refresh as [wr|].
    + destruct (finalize _ _ wr true) as [[nl|e] s2] eqn:F; apply finalize_xfr in F;
        cbn [negb]; dm; iinv; left; (split; [reflexivity|eauto 10 with sfr]).
    + cbn [negb]. dm; iinv; left; (split; [reflexivity|eauto with sfr]).
  - destruct refresh as [wr|].
    + destruct (finalize _ s1 wr false) as [[nl|e] s2] eqn:F.
      { apply finalize_ok in F as [F _]. discriminate. }
      apply finalize_xfr in F. cbn [negb]. iinv. right. exists b, s1.
      split; [reflexivity|split; [|split; reflexivity]]. eapply xfr_trans; [exact F|apply unpin_xfr].
    + cbn [negb]. iinv. right. exists b, s1. split; [reflexivity|split; [|split; reflexivity]]. apply unpin_xfr.
Qed.

Lemma get_consume_sfr w s o uid l refresh fk code bytes s' :
  get_consume w s o uid l refresh fk = (code, bytes, s') ->
  sfr 0 s s' \/ (sfr 1 s s' /\ code = cInternal /\ bytes = [] /\ l_abs l + 1 <= s_tbr s').
Proof.
  intros H0. apply get_consume_cases in H0 as [[_ H1]|(b & s1 & R & X & -> & ->)]; [left; assumption|right].
  apply read_validated_false_dfr in R.
  split; [eapply sfr_xfr_step; [exact X|eapply dfr_sfr, R]|split; [reflexivity|split; [reflexivity|]]].
  rewrite (xf_tbr _ _ X), (df_tbr _ _ _ R). apply N.le_max_r.
Qed.

Lemma fm_refresh_one_cases w s o i r s' : fm_refresh_one w s o i = (r, s') ->
  sfr 0 s s' \/ (sfr 1 s s' /\ r = Err cInternal /\
                 exists k l, least_specific s (lookup_keys w o i) = Some (k, l) /\ l_abs l + 1 <= s_tbr s').
Proof.
  unfold fm_refresh_one.
  destruct (least_specific s (lookup_keys w o i)) as [[k l]|]; [|iinv; left; auto with sfr].
  destruct (negb (needs_refresh s l)); [iinv; left; auto with sfr|].
  match goal with |- context [match ?d with Some s1 => (Ok true, s1) | None => _ end] => destruct d as [s1|] eqn:D end.
  { iinv. left. destruct (c_hier (w_cfg w)); [|discriminate].
    destruct (sync_from_canonical s o k) as [[cl s2]|] eqn:E; [|discriminate]. inv D.
    apply sync_from_canonical_sfr in E as [-> _]. auto with sfr. }
  clear D. destruct (block_of_loc s l) as [b|]; [|iinv; left; auto with sfr].
  destruct (ocn_put (w_cfg w) (pin s (b_uid b)) (l_size l)) as [[wr|e] s1] eqn:E; apply ocn_put_afr in E.
  2:{ iinv. left. eauto with sfr. }
  destruct (read_validated w s1 o (b_uid b) l) as [[valid bytes] s2] eqn:R. destruct valid.
  - apply read_validated_true in R; subst s2.
    destruct (finalize _ _ wr true) as [[nl|e] s3] eqn:F; apply finalize_xfr in F;
      iinv; left; eauto 10 with sfr.
  - apply read_validated_false_dfr in R.
    assert (sfr 1 s s2) as S2 by (eapply sfr_dfr_step; [exact R|eauto with sfr]).
    destruct (finalize _ _ wr false) as [[nl|e] s3] eqn:F.
    { apply finalize_ok in F as [F _]. discriminate. }
    apply finalize_xfr in F. iinv. right. split; [eauto with sfr|split; [reflexivity|]].
    exists k, l. split; [reflexivity|].
    rewrite (xf_tbr _ _ F), (xf_tbr _ _ (unpin_xfr _ _ _)), (df_tbr _ _ _ R). apply N.le_max_r.
Qed.

Lemma fm_phase2_cases w : forall todo s missing r s', fm_phase2 w s todo missing = (r, s') ->
  sfr 0 s s' \/ (sfr 1 s s' /\ r = Err cInternal).
Proof.
  induction todo as [|[pos [o i]] t IH]; intros s missing r s'; cbn [fm_phase2].
  - iinv. left. auto with sfr.
  - destruct (fm_refresh_one w s o i) as [[[]|e] s1] eqn:E; apply fm_refresh_one_cases in E.
    1-2: intros H; apply IH in H; destruct E as [E|(_ & E & _)]; [|discriminate];
      destruct H as [H|[H ->]]; [left|right; split; [|reflexivity]]; eapply sfr_trans0n; eassumption.
    iinv. destruct E as [E|(E & E' & _)]; [left; assumption|right; split; [assumption|congruence]].
Qed.

Lemma find_missing_cases w s ds r s' : find_missing w s ds = (r, s') ->
  sfr 0 s s' \/ (sfr 1 s s' /\ r = Err cInternal).
Proof. unfold find_missing. apply fm_phase2_cases. Qed.

Lemma put_start_sfr w s o i r s' : put_start w s o i = (r, s') -> sfr 0 s s'.
Proof.
  unfold put_start.
  match goal with |- context [if ?x then (Ok (TPutExisting o i []), s) else _] => destruct x end.
  - iinv; auto with sfr.
  - destruct (ocn_put (w_cfg w) s (osize w o)) as [[wr|e] s1] eqn:E; apply ocn_put_afr in E;
      iinv; eauto with sfr.
Qed.

Lemma mk_sfr (c : config) (i : nat) (ploc : loc) (slices : list (nat * (N * N))) : forall n s s1,
  sfr n s s1 ->
  sfr n s (fold_left (fun acc '(cho, (off, len)) =>
                        index_put acc (flat_key c cho i)
                                  {| l_abs := l_abs ploc; l_off := l_off ploc + off; l_size := len |})
                     slices s1).
Proof.
  induction slices as [|[cho [off len]] t IH]; intros n s s1 H; cbn [fold_left]; [assumption|].
  apply IH. auto with sfr.
Qed.

Definition out_internal (o : out) : Prop :=
  match o with Done c _ => c = cInternal | Missing c _ => c = cInternal | _ => False end.

(** every step: the frame holds, and a counted negative verdict fails the
    operation with INTERNAL *)
Lemma step_sfr w s e s' out : step w s e = (s', out) ->
  sfr 0 s s' \/ (sfr 1 s s' /\ out_internal out).
Proof.
  unfold step.
  destruct e as [tid ob i|tid data|tid err|tid ob i|tid|ds|tid p i ch|tid slices|rg off len];
    cbn [may_take_refresh_lock is_corrupt andb].
  - (* OPutStart *)
    destruct (thr_get (s_threads s) tid); [iinv; left; auto with sfr|].
    destruct (put_start w s ob i) as [[t|e] s1] eqn:E; apply put_start_sfr in E;
      iinv; left; auto with sfr.
  - (* OPutChunk *)
    destruct (thr_get (s_threads s) tid) as [[o i wr acc|o i acc| | |]|]; try solve [iinv; left; auto with sfr].
    + destruct (wr_size wr <? _).
      * destruct (finalize (w_cfg w) s wr false) as [r s1] eqn:F. apply finalize_xfr in F.
        iinv; left; eauto with sfr.
      * iinv; left; auto with sfr.
    + destruct (osize w o <? _); iinv; left; auto with sfr.
  - (* OPutEnd *)
    destruct (thr_get (s_threads s) tid) as [[o i wr acc|o i acc| | |]|]; try solve [iinv; left; auto with sfr].
    + destruct (finalize (w_cfg w) s wr _) as [[l|e] s1] eqn:F; apply finalize_xfr in F;
        iinv; left; eauto with sfr.
    + dm; iinv; left; auto with sfr.
  - (* OGetOpen *)
    destruct (thr_get (s_threads s) tid); [iinv; left; auto with sfr|].
    destruct (get_open w s ob i) as [[t|e] s1] eqn:E; apply get_open_sfr in E;
      iinv; left; auto with sfr.
  - (* OGetConsume *)
    destruct (thr_get (s_threads s) tid) as [[| |o uid l refresh fk| |]|]; try solve [iinv; left; auto with sfr].
    destruct (get_consume w s o uid l refresh fk) as [[code bytes] s1] eqn:E.
    apply get_consume_sfr in E. iinv.
    destruct E as [E|(E & -> & -> & _)]; [left|right; split; [|reflexivity]]; auto with sfr.
  - (* OFindMissing *)
    destruct (refresh_lock_held s); [iinv; left; auto with sfr|].
    destruct (find_missing w s ds) as [[m|e] s1] eqn:E; apply find_missing_cases in E;
      iinv; destruct E as [E|[E E']]; try (left; assumption); try discriminate.
    inv E'. right. split; [assumption|reflexivity].
  - (* OGfcStart *)
    destruct (refresh_lock_held s); [iinv; left; auto with sfr|].
    destruct (thr_get (s_threads s) tid); [iinv; left; auto with sfr|].
    destruct (c_hier (w_cfg w)).
    + destruct (get_open w s p i) as [[t|e] s1] eqn:E; apply get_open_sfr in E.
      * destruct t; iinv; left; auto with sfr.
      * iinv; left; auto with sfr.
    + destruct (index_get s (flat_key (w_cfg w) p i)) as [pl|]; [|iinv; left; auto with sfr].
      lazymatch goal with |- (match ?d with _ => _ end) = _ -> _ => destruct d as [[cl uid]|] end.
      * destruct (get_consume w (pin s uid) ch uid cl None []) as [[code bytes] s2] eqn:E.
        apply get_consume_sfr in E. iinv.
        destruct E as [E|(E & -> & -> & _)]; [left|right; split; [|reflexivity]];
          (eapply sfr_trans0n; [|exact E]); auto with sfr.
      * destruct (block_of_loc s pl) as [b|]; [|iinv; left; auto with sfr].
        destruct (needs_refresh s pl); [|iinv; left; auto with sfr].
        destruct (ocn_put (w_cfg w) (pin s (b_uid b)) (l_size pl)) as [[wr|e] s2] eqn:E; apply ocn_put_afr in E.
        -- destruct (lockstep (w_cfg w)); iinv; left; eauto 10 with sfr.
        -- iinv; left; eauto with sfr.
  - (* OGfcSlice *)
    destruct (thr_get (s_threads s) tid) as [[| |o uid l refresh fk|p i uid pl refresh pk|code]|];
      try solve [iinv; left; auto with sfr].
    + destruct (get_consume w s o uid l refresh fk) as [[code bytes] s1] eqn:E.
      apply get_consume_sfr in E. iinv.
      destruct E as [E|(E & -> & -> & _)]; [left|right; split; [|reflexivity]]; auto with sfr.
    + destruct (read_validated w s p uid pl) as [[valid bytes] s1] eqn:R. destruct valid; cbn [negb].
      * apply read_validated_true in R; subst s1.
        destruct refresh as [wr|].
        -- destruct (lockstep (w_cfg w)).
           ++ destruct (finalize _ _ wr true) as [[nl|e] s3] eqn:F; apply finalize_xfr in F;
                iinv; left; [|eauto 10 with sfr].
              apply sfr_thr_rm, mk_sfr. eauto 10 with sfr.
           ++ destruct (fin_check _ wr) as [nl|e]; iinv; left; [|eauto 10 with sfr].
              apply sfr_thr_rm, mk_sfr. eauto 10 with sfr.
        -- destruct (index_get _ pk) as [pl'|]; iinv; left; [|eauto with sfr].
           apply sfr_thr_rm, mk_sfr. eauto with sfr.
      * apply read_validated_false_dfr, dfr_sfr in R. iinv. right. split; [|reflexivity].
        apply sfr_thr_rm. dm; eauto with sfr.
  - (* OCorrupt *)
    dm; iinv; left; auto with sfr.
Qed.
