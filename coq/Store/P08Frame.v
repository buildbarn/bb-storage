(** C08/C10 — frame lemmas of the local-store model: which parts of the state
    the allocator / block-map primitives leave alone, and which counters are
    monotone. *)
From Coq Require Import List NArith ZArith Bool Arith Lia ZifyN ZifyNat ZifyBool.
From BBS Require Import Store.Model Store.Basics.
Import ListNotations.
Open Scope N_scope.

Ltac dm :=
  repeat match goal with
         | |- context [match ?x with _ => _ end] => destruct x eqn:?
         end.

Ltac inv H := revert H; intros [=]; subst.
Ltac iinv := intros [=]; subst.

(** absolute number one past the newest listed block *)
Definition hiM (s : state) : N := s_released s + N.of_nat (length (s_blocks s)).

(** exact frame: everything a lookup depends on is untouched *)
Record xfr (s s' : state) : Prop := {
  xf_index : s_index s' = s_index s;
  xf_threads : s_threads s' = s_threads s;
  xf_negs : s_negs s' = s_negs s;
  xf_tbr : s_tbr s' = s_tbr s;
  xf_rel : s_released s' = s_released s;
  xf_len : length (s_blocks s') = length (s_blocks s);
  xf_old : s_old s' = s_old s;
}.

(** allocator frame: index, threads, verdict counter untouched; counters monotone *)
Record afr (s s' : state) : Prop := {
  af_index : s_index s' = s_index s;
  af_threads : s_threads s' = s_threads s;
  af_negs : s_negs s' = s_negs s;
  af_tbr : s_tbr s <= s_tbr s';
  af_rel : s_released s <= s_released s';
  af_hi : hiM s <= hiM s';
}.

Lemma xfr_refl s : xfr s s.
Proof. constructor; reflexivity. Qed.
Lemma xfr_trans a b c : xfr a b -> xfr b c -> xfr a c.
Proof. intros [] []; constructor; congruence. Qed.
Lemma afr_refl s : afr s s.
Proof. constructor; reflexivity || apply N.le_refl. Qed.
Lemma afr_trans a b c : afr a b -> afr b c -> afr a c.
Proof.
  intros [I1 T1 N1 B1 R1 H1] [I2 T2 N2 B2 R2 H2]; constructor; try congruence.
  - exact (N.le_trans _ _ _ B1 B2).
  - exact (N.le_trans _ _ _ R1 R2).
  - exact (N.le_trans _ _ _ H1 H2).
Qed.
Lemma xfr_afr a b : xfr a b -> afr a b.
Proof.
  intros [I T Ng B R L O]; constructor; try assumption; unfold hiM; rewrite ?B, ?R, ?L; apply N.le_refl.
Qed.

Ltac xfr_close := constructor; cbn; rewrite ?map_uid_length; reflexivity.

Lemma pin_xfr s u : xfr s (pin s u).
Proof. unfold pin. xfr_close. Qed.

Lemma unpin_xfr c s u : xfr s (unpin c s u).
Proof. unfold unpin. dm; xfr_close. Qed.

Lemma write_block_xfr s u off d : xfr s (write_block s u off d).
Proof. unfold write_block. dm; xfr_close. Qed.

Lemma upd_alloc_xfr s a i : xfr s (upd_alloc s a i).
Proof. xfr_close. Qed.

Lemma pop_front_afr c s : afr s (pop_front c s).
Proof.
  unfold pop_front. dm; constructor; unfold hiM; cbn; try reflexivity; try apply N.le_refl;
    rewrite ?Heql; cbn [length]; lia.
Qed.

Lemma pop_front_tbr c s : s_tbr (pop_front c s) = s_tbr s.
Proof. unfold pop_front. dm; reflexivity. Qed.

Lemma new_block_afr c s b s' : new_block c s = Some (b, s') -> afr s s' /\ s_blocks s' = s_blocks s.
Proof.
  unfold new_block. dm; iinv; split; try reflexivity;
    constructor; unfold hiM; cbn; reflexivity || apply N.le_refl.
Qed.

Lemma push_back_afr c s s' : push_back c s = Some s' -> afr s s'.
Proof.
  unfold push_back. destruct (new_block c s) as [[b s1]|] eqn:E; [|discriminate].
  iinv. apply new_block_afr in E as [[] Eb].
  constructor; unfold hiM in *; cbn; try assumption. rewrite Eb, app_length. cbn. lia.
Qed.

Lemma upd_counts_afr s o c n : afr s (upd_counts s o c n).
Proof. constructor; unfold hiM; cbn; reflexivity || apply N.le_refl. Qed.
Lemma reset_alloc_afr s : afr s (reset_alloc s).
Proof. constructor; unfold hiM; cbn; reflexivity || apply N.le_refl. Qed.

Lemma fbs_release_afr c fuel : forall s, afr s (fbs_release c fuel s).
Proof.
  induction fuel as [|f IH]; intros s; cbn [fbs_release]; [apply afr_refl|].
  destruct (s_released s <? s_tbr s); [|apply afr_refl].
  eapply afr_trans; [|apply IH].
  eapply afr_trans; [apply pop_front_afr|].
  dm; try apply upd_counts_afr.
  eapply afr_trans; [apply upd_counts_afr|apply reset_alloc_afr].
Qed.

Lemma fbs_grow_afr c fuel : forall s b s', fbs_grow c fuel s = (b, s') -> afr s s'.
Proof.
  induction fuel as [|f IH]; intros s b s'; cbn [fbs_grow].
  - iinv; apply afr_refl.
  - destruct (grow_new c (s_cur s) (s_new s)).
    + destruct (push_back c s) as [s1|] eqn:E.
      * intros H. apply IH in H. eapply afr_trans; [|exact H].
        eapply afr_trans; [eapply push_back_afr; exact E|apply upd_counts_afr].
      * iinv; apply afr_refl.
    + iinv; apply afr_refl.
Qed.

Lemma upd_rel_max_afr s : afr s (upd_rel s (s_released s) (N.max (s_tbr s) (s_released s))).
Proof. constructor; unfold hiM; cbn; try reflexivity; try apply N.le_refl. apply N.le_max_l. Qed.

Lemma fbs_rotate_afr c fuel size : forall s b s', fbs_rotate c fuel size s = (b, s') -> afr s s'.
Proof.
  induction fuel as [|f IH]; intros s b s'; cbn [fbs_rotate].
  - iinv; apply afr_refl.
  - destruct (has_space c s (s_old s + s_cur s) size).
    { iinv; apply afr_refl. }
    destruct (Nat.ltb (desired_new c) (s_new s)).
    { intros H. apply IH in H. eapply afr_trans; [|exact H].
      eapply afr_trans; [apply upd_counts_afr|apply reset_alloc_afr]. }
    destruct (push_back c s) as [s1|] eqn:E.
    2:{ iinv; apply afr_refl. }
    intros H. apply IH in H. eapply afr_trans; [|exact H].
    eapply afr_trans; [eapply push_back_afr; exact E|].
    eapply afr_trans; [|apply reset_alloc_afr].
    destruct (grow_cur c (s_cur s1)); [apply upd_counts_afr|].
    match goal with |- context [if ?x then _ else _] => destruct x end; [|apply upd_counts_afr].
    eapply afr_trans; [apply upd_counts_afr|].
    eapply afr_trans; [apply pop_front_afr|].
    eapply afr_trans; [apply upd_counts_afr|].
    apply upd_rel_max_afr.
Qed.

Lemma fbs_pick_xfr c fuel size : forall s idx s', fbs_pick c fuel size s = Some (idx, s') -> xfr s s'.
Proof.
  induction fuel as [|f IH]; intros s idx s'; cbn [fbs_pick]; [discriminate|].
  destruct (s_attempts s) as [|a]; [|destruct (s_aidx s) as [i|]];
    try (intros H; apply IH in H; eapply xfr_trans; [apply upd_alloc_xfr|exact H]).
  destruct (has_space c s (s_old s + s_cur s + i) size).
  - iinv. apply upd_alloc_xfr.
  - intros H; apply IH in H; eapply xfr_trans; [apply upd_alloc_xfr|exact H].
Qed.

Lemma find_block_with_space_afr c s size r s' :
  find_block_with_space c s size = (r, s') -> afr s s'.
Proof.
  unfold find_block_with_space.
  destruct (c_bs c <? size). { iinv; apply afr_refl. }
  pose proof (fbs_release_afr c (S (length (s_blocks s))) s) as H1.
  destruct (fbs_grow c _ _) as [b2 s2] eqn:E2. apply fbs_grow_afr in E2.
  pose proof (afr_trans _ _ _ H1 E2) as H2.
  destruct b2; [|iinv; assumption].
  destruct (fbs_rotate c _ size s2) as [b3 s3] eqn:E3. apply fbs_rotate_afr in E3.
  pose proof (afr_trans _ _ _ H2 E3) as H3.
  destruct b3; [|iinv; assumption].
  destruct (fbs_pick c _ size s3) as [[idx s4]|] eqn:E4; iinv; [|assumption].
  eapply afr_trans; [exact H3|]. eapply xfr_afr, fbs_pick_xfr, E4.
Qed.

Lemma ocn_put_afr c s size r s' : ocn_put c s size = (r, s') -> afr s s'.
Proof.
  unfold ocn_put. destruct (find_block_with_space c s size) as [[idx|e] s1] eqn:E;
    apply find_block_with_space_afr in E.
  - destruct (nth_error (s_blocks s1) idx); iinv; [|assumption].
    eapply afr_trans; [exact E|]. constructor; unfold hiM; cbn; rewrite ?map_uid_length; reflexivity || apply N.le_refl.
  - iinv; assumption.
Qed.

(** a fresh writer points at a listed block *)
Lemma ocn_put_wr_abs c s size wr s' : ocn_put c s size = (Ok wr, s') -> wr_abs wr < hiM s'.
Proof.
  unfold ocn_put. destruct (find_block_with_space c s size) as [[idx|e] s1] eqn:E; [|discriminate].
  destruct (nth_error (s_blocks s1) idx) eqn:En; [|discriminate].
  iinv. unfold hiM; cbn. rewrite map_uid_length.
  assert (idx < length (s_blocks s1))%nat by (apply nth_error_Some; congruence). lia.
Qed.

Lemma fbws_err_code c s size e s' : find_block_with_space c s size = (Err e, s') ->
  e = cInvalidArgument \/ e = cUnavailable \/ e = (-1)%Z.
Proof.
  unfold find_block_with_space. dm; iinv; auto.
Qed.

Lemma ocn_put_err_code c s size e s' : ocn_put c s size = (Err e, s') ->
  e = cInvalidArgument \/ e = cUnavailable \/ e = (-1)%Z \/ e = (-2)%Z.
Proof.
  unfold ocn_put. destruct (find_block_with_space c s size) as [[idx|e1] s1] eqn:E.
  - destruct (nth_error (s_blocks s1) idx); iinv; auto.
  - iinv. apply fbws_err_code in E. tauto.
Qed.

Lemma finalize_xfr c s wr ok r s' : finalize c s wr ok = (r, s') -> xfr s s'.
Proof. unfold finalize. dm; iinv; apply unpin_xfr. Qed.

Lemma finalize_state c s wr ok : snd (finalize c s wr ok) = unpin c s (wr_uid wr).
Proof. unfold finalize. dm; reflexivity. Qed.

Lemma finalize_err_code c s wr ok e s' : finalize c s wr ok = (Err e, s') ->
  e = cInvalidArgument \/ e = cInternal.
Proof. unfold finalize. dm; iinv; auto. Qed.

Lemma finalize_ok c s wr ok l s' : finalize c s wr ok = (Ok l, s') ->
  ok = true /\ s_tbr s <= wr_abs wr /\ l = {| l_abs := wr_abs wr; l_off := wr_off wr; l_size := wr_size wr |}
  /\ s' = unpin c s (wr_uid wr).
Proof.
  unfold finalize. destruct ok; cbn [negb]; [|discriminate].
  destruct (wr_abs wr <? s_tbr (unpin c s (wr_uid wr))) eqn:E; [discriminate|].
  iinv. rewrite (xf_tbr _ _ (unpin_xfr c s (wr_uid wr))) in E.
  repeat split. lia.
Qed.

Lemma finalize_quarantined c s wr ok r s' :
  finalize c s wr ok = (r, s') -> wr_abs wr < s_tbr s -> exists e, r = Err e /\ e <> 0%Z.
Proof.
  unfold finalize. rewrite (xf_tbr _ _ (unpin_xfr c s (wr_uid wr))).
  destruct (negb ok); [intros H _; inversion H; eexists; split; [reflexivity|discriminate]|].
  intros H Hlt. destruct (wr_abs wr <? s_tbr s) eqn:E; [|lia].
  inversion H; eexists; split; [reflexivity|discriminate].
Qed.

Lemma index_put_all_index s ks l :
  s_index (index_put_all s ks l) = rev (map (fun k => (k, l)) ks) ++ s_index s.
Proof.
  revert s. induction ks as [|k t IH]; intros s; cbn [index_put_all map rev]; [reflexivity|].
  rewrite IH. cbn. rewrite <- app_assoc. reflexivity.
Qed.

(** everything but the index is untouched by index_put_all *)
Record ifr (s s' : state) : Prop := {
  if_threads : s_threads s' = s_threads s;
  if_negs : s_negs s' = s_negs s;
  if_tbr : s_tbr s' = s_tbr s;
  if_rel : s_released s' = s_released s;
  if_blocks : s_blocks s' = s_blocks s;
  if_old : s_old s' = s_old s;
}.
Lemma index_put_all_ifr s ks l : ifr s (index_put_all s ks l).
Proof.
  revert s. induction ks as [|k t IH]; intros s; cbn [index_put_all]; [constructor; reflexivity|].
  destruct (IH (index_put s k l)). constructor; cbn in *; congruence.
Qed.

Lemma loc_valid_ext s s' l :
  s_tbr s' = s_tbr s -> s_released s' = s_released s -> length (s_blocks s') = length (s_blocks s) ->
  loc_valid s' l = loc_valid s l.
Proof. unfold loc_valid. intros -> -> ->. reflexivity. Qed.

Lemma index_get_ext s s' k :
  s_index s' = s_index s ->
  s_tbr s' = s_tbr s -> s_released s' = s_released s -> length (s_blocks s') = length (s_blocks s) ->
  index_get s' k = index_get s k.
Proof.
  intros Hi Ht Hr Hl. unfold index_get. rewrite Hi. f_equal. f_equal.
  apply filter_ext. intros e. rewrite (loc_valid_ext s s'); auto.
Qed.

Lemma index_get_xfr s s' k : xfr s s' -> index_get s' k = index_get s k.
Proof. intros []. apply index_get_ext; assumption. Qed.

(** the result of [newest] lies in a block at least as new as every candidate *)
Lemma newest_max cands : forall best,
  match newest cands best with
  | Some r => (forall c, In c cands -> l_abs c <= l_abs r) /\ (forall b, best = Some b -> l_abs b <= l_abs r)
  | None => cands = [] /\ best = None
  end.
Proof.
  induction cands as [|c t IH]; intros best; cbn [newest].
  - destruct best; [split; [intros ? []|intros b H; inversion H; lia]|auto].
  - specialize (IH (match best with None => Some c | Some b => if loc_older b c then Some c else Some b end)).
    destruct (newest t _) as [r|].
    + destruct IH as [H1 H2]. split.
      * intros x [<-|Hx]; [|auto].
        destruct best as [b|]; [destruct (loc_older b c) eqn:E|]; try (apply H2; reflexivity).
        specialize (H2 b eq_refl). unfold loc_older in E. lia.
      * intros b ->. destruct (loc_older b c) eqn:E; [|apply H2; reflexivity].
        specialize (H2 c eq_refl). unfold loc_older in E. lia.
    + destruct IH as [_ H]. destruct best as [b|]; [destruct (loc_older b c)|]; discriminate.
Qed.

Lemma index_get_quarantine s k l : index_get s k = Some l -> s_tbr s <= l_abs l.
Proof. intros H. apply index_get_some in H as [_ H]. unfold loc_valid in H. lia. Qed.

Lemma least_specific_ext s s' ks : (forall k, index_get s' k = index_get s k) ->
  least_specific s' ks = least_specific s ks.
Proof. intros H. induction ks as [|k t IH]; cbn; [reflexivity|]. rewrite H, IH. reflexivity. Qed.
