(** Store/SectorWriterCommute2.v — the shared-sector images a writer holds lie in its sector span
    (what [private_write_commutes_disjoint_sectors] needs beside [writer_writes_only_own_sectors]). *)
From Coq Require Import List Arith ZArith Bool Lia.
From BBS Require Import Store.SectorWriter Store.SectorWriterCommute Store.SectorWriterArith Store.SectorWriterInv.
Import ListNotations.

Lemma ids_in_span c images t i :
  1 <= c_sector c -> tinv c images t -> In i (ids_of (t_w t)) ->
  span_lo c t <= (c_base c + isec images i) * c_sector c /\
  (c_base c + isec images i + 1) * c_sector c <= span_hi c t.
Proof.
  intros HS Ht Hin. pose proof Ht as (_ & _ & T3 & _). unfold ids_of in Hin. apply in_app_or in Hin.
  destruct (t_start_eq c HS t) as [Est Ua]. pose proof (ceil_ge _ HS (t_end t)) as Hc.
  unfold span_lo, span_hi. destruct Hin as [Hin|Hin].
  - destruct (w_first (t_w t)) as [id|] eqn:Hf; [|destruct Hin]. destruct Hin as [<-|[]].
    destruct (wph_some _ _ _ _ Ht Hf) as (_ & A0 & _ & Hs & _). rewrite Hs.
    pose proof (mul_lt_succ _ HS (t_fs c t) ((t_end t + c_sector c - 1) / c_sector c)
                  ltac:(unfold t_end in *; lia)). lia.
  - destruct (w_last (t_w t)) as [id|]; [|destruct Hin]. destruct Hin as [<-|[]].
    destruct T3 as (E0 & _ & Hs). rewrite Hs, (ceil_succ _ HS _ E0).
    pose proof (sec_mono _ HS (t_start t) (t_end t) ltac:(unfold t_end; lia)) as Hfe. fold (t_fs c t) in Hfe.
    pose proof (Nat.mul_le_mono_r _ _ (c_sector c) Hfe). lia.
Qed.
