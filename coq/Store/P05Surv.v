(** C05: the counting core on the store model itself. *)
From Coq Require Import List NArith ZArith Bool Arith Lia Relations.
From Coq Require Import ZifyN ZifyNat ZifyBool.
From BBS Require Import Store.Model Store.WfTids Store.P05Cnt Store.P05Frame Store.P05WEnd Store.P05Ops Store.P05Step.
Import ListNotations.
Open Scope N_scope.

Lemma run_cons w s e t : fst (run w s (e :: t)) = fst (run w (fst (step w s e)) t).
Proof. cbn [run]. destruct (step w s e) as [s1 o]. cbn [fst]. destruct (run w s1 t). reflexivity. Qed.

Lemma step_creach w s e :
  kinv (w_cfg w) (proj s) ->
  creach (w_cfg w) (proj s) (proj (fst (step w s e))) /\ incl (s_index s) (s_index (fst (step w s e))).
Proof.
  intros K. destruct (step w s e) as [s1 o] eqn:E. apply step_frame in E; [|exact K].
  destruct E as (A & B & _). auto.
Qed.

Lemma run_frame w es : forall s,
  kinv (w_cfg w) (proj s) ->
  creach (w_cfg w) (proj s) (proj (fst (run w s es))) /\ incl (s_index s) (s_index (fst (run w s es))).
Proof.
  induction es as [|e t IH]; intros s K.
  - split; [apply creach_refl|apply incl_refl].
  - rewrite run_cons. destruct (step_creach w s e K) as [A B].
    destruct (IH (fst (step w s e)) (creach_kinv _ _ _ A K)) as [C D].
    split; [eapply creach_trans; eauto|eapply incl_tran; eauto].
Qed.

(** the simple counter facts hold in every reachable state *)
Theorem reachable_counters w es :
  let s := fst (run w (init_state (w_cfg w)) es) in
  length (s_blocks s) = (s_old s + s_cur s + s_new s)%nat /\
  s_released s <= s_tbr s /\
  s_released s + N.of_nat (length (s_blocks s)) = N.of_nat (s_pushbacks s) /\
  (s_old s <= c_old (w_cfg w))%nat /\
  (s_negs s = O -> s_tbr s = s_released s).
Proof.
  cbv zeta. destruct (run_frame w es (init_state (w_cfg w)) (kinv_init _)) as [R _].
  pose proof (creach_kinv _ _ _ R (kinv_init _)) as [K1 K2 K3 K4 K5]. cbn in *.
  repeat split; auto. intros E. specialize (K5 E). lia.
Qed.

(** push-backs, the quarantine mark, the released count and the end of the
    list never decrease; the push-back counter counts the blocks appended:
    (released + length) = push-backs is part of [reachable_counters]. *)
Theorem counters_monotone w s es :
  kinv (w_cfg w) (proj s) ->
  let s' := fst (run w s es) in
  (s_pushbacks s <= s_pushbacks s')%nat /\ (s_negs s <= s_negs s')%nat /\ s_tbr s <= s_tbr s' /\
  s_released s <= s_released s'.
Proof.
  intros K. cbv zeta. destruct (run_frame w es s K) as [R _]. apply creach_mono in R.
  unfold kmono in R. cbn in R. lia.
Qed.

(** The counting core.  A block with absolute number T that is listed, not
    old (relative index >= s_old) and not quarantined in a state [s] whose
    counters are consistent (every reachable state) is still listed and not
    quarantined after any continuation [es] that performs at most c_old
    push-backs and meets no negative integrity verdict. *)
Theorem nonold_block_survives w s es T :
  kinv (w_cfg w) (proj s) ->
  s_tbr s <= T -> s_released s + N.of_nat (s_old s) <= T ->
  T < s_released s + N.of_nat (length (s_blocks s)) ->
  let s' := fst (run w s es) in
  s_negs s' = s_negs s -> (s_pushbacks s' - s_pushbacks s <= c_old (w_cfg w))%nat ->
  s_tbr s' <= T /\ s_released s' <= T /\ T < s_released s' + N.of_nat (length (s_blocks s')).
Proof.
  intros K H1 H2 H3. cbv zeta. intros H4 H5.
  destruct (run_frame w es s K) as [R _].
  exact (nonold_survives_cnt (w_cfg w) (proj s) (proj (fst (run w s es))) T R H1 H2 H3 H4 H5).
Qed.

(** ... hence an index entry in such a block keeps answering look-ups. *)
Theorem nonold_entry_survives w s es k l :
  kinv (w_cfg w) (proj s) ->
  In (k, l) (s_index s) -> loc_valid s l = true -> needs_refresh s l = false ->
  let s' := fst (run w s es) in
  s_negs s' = s_negs s -> (s_pushbacks s' - s_pushbacks s <= c_old (w_cfg w))%nat ->
  index_get s' k <> None.
Proof.
  intros K I V NR. cbv zeta. intros H4 H5.
  destruct (not_old_fresh _ _ _ K V NR) as (F1 & F2 & F3). cbn in F1, F2. unfold k_end in F3; cbn in F3.
  destruct (nonold_block_survives w s es (l_abs l) K F1 F2 F3 H4 H5) as (A & B & C).
  destruct (run_frame w es s K) as [_ IN].
  eapply index_get_of_valid; [apply IN; exact I|]. unfold loc_valid. clear - A C. lia.
Qed.

Theorem reachable_kinv w es : kinv (w_cfg w) (proj (fst (run w (init_state (w_cfg w)) es))).
Proof.
  destruct (run_frame w es (init_state (w_cfg w)) (kinv_init _)) as [R _].
  exact (creach_kinv _ _ _ R (kinv_init _)).
Qed.

Lemma run_winv w : forall es s, kinv (w_cfg w) (proj s) -> winv w s -> winv w (fst (run w s es)).
Proof.
  induction es as [|e t IH]; intros s K HI; [exact HI|].
  rewrite run_cons. destruct (step w s e) as [s1 o] eqn:E. cbn [fst].
  apply IH; [|exact (step_winv _ _ _ _ _ K HI E)].
  exact (creach_kinv _ _ _ (proj1 (step_frame _ _ _ _ _ K E)) K).
Qed.

Theorem reachable_winv w es : winv w (fst (run w (init_state (w_cfg w)) es)).
Proof. apply run_winv; [apply kinv_init|apply winv_init]. Qed.

Theorem nonold_block_survives_reachable w es0 es T :
  let s := fst (run w (init_state (w_cfg w)) es0) in
  let s' := fst (run w s es) in
  s_tbr s <= T -> s_released s + N.of_nat (s_old s) <= T ->
  T < s_released s + N.of_nat (length (s_blocks s)) ->
  s_negs s' = s_negs s -> (s_pushbacks s' - s_pushbacks s <= c_old (w_cfg w))%nat ->
  s_tbr s' <= T /\ s_released s' <= T /\ T < s_released s' + N.of_nat (length (s_blocks s')).
Proof.
  cbv zeta. intros. apply nonold_block_survives; auto. apply reachable_kinv.
Qed.
