(** C05, idempotence: the whole FindMissing call.
    [find_missing_leaves]: what a successful call leaves behind;
    [repeat_call_count]: if the digest copied last by the previous call is
    still found not old and the repeated call changes an allocation cursor,
    the repeated call reports at least two digests present. *)
From Coq Require Import Relations.
From Coq Require Import ZifyBool.
From BBS Require Import Common.Sx Store.Model.
From BBS Require Import Store.P05Cnt Store.P05Frame Store.P05Ops.
From BBS Require Import Store.P05WRep Store.P05WEnd Store.P05WFm.
Import ListNotations.
Open Scope N_scope.

(** the three invariants of reachable states used here *)
Definition sinv (w : world) (s : state) : Prop := kinv (w_cfg w) (proj s) /\ winv w s.

Lemma sinv_refresh_one w s o i r s1 : sinv w s -> fm_refresh_one w s o i = (r, s1) -> sinv w s1.
Proof.
  intros (K & W) FR. apply fm_refresh_one_spec in FR; [|exact K]. destruct FR as (F & _).
  split; [exact (ext_kinv _ _ _ F K)|exact (proj2 F W)].
Qed.

Lemma ls_none_KV w s s' o i :
  KV w s s' -> least_specific s (lookup_keys w o i) = None -> least_specific s' (lookup_keys w o i) = None.
Proof.
  intros HK LN. apply ls_none_intro. intros k Hk.
  destruct (index_get s' k) as [l|] eqn:E; [|reflexivity]. exfalso.
  apply (HK k (lookup_lkey w o i k Hk)); [congruence|]. eapply least_specific_none; eauto.
Qed.

(** every digest of the call is settled or not found *)
Definition FMI (w : world) (s : state) (ds : list (nat * nat)) : Prop :=
  forall o i, In (o, i) ds -> settled w s o i \/ least_specific s (lookup_keys w o i) = None.

Definition NC (w : world) (s s' : state) (todo : list (nat * (nat * nat))) : Prop :=
  proj s' = proj s /\ incl (s_index s) (s_index s') /\
  (forall o' i', LSF w s o' i' -> LSF w s' o' i') /\
  (forall pos o i, In (pos, (o, i)) todo -> settled w s' o i \/ least_specific s' (lookup_keys w o i) = None).

Lemma fm_phase2_inv w : forall todo s missing m s',
  sinv w s -> fm_phase2 w s todo missing = (Ok m, s') ->
  KV w s s' /\
  (NC w s s' todo \/ exists pos o i, In (pos, (o, i)) todo /\ LSF w s' o i).
Proof.
  induction todo as [|[pos0 [o0 i0]] t IH]; intros s missing m s' SI H; cbn [fm_phase2] in H.
  - inversion H; subst. split; [apply KV_refl|]. left.
    split; [reflexivity|]. split; [apply incl_refl|]. split; [auto|]. intros ? ? ? [].
  - destruct (fm_refresh_one w s o0 i0) as [r1 s1] eqn:E1.
    pose proof (sinv_refresh_one _ _ _ _ _ _ SI E1) as SI1.
    destruct SI as (K & EI & HH).
    apply fm_refresh_one_inv in E1; auto. destruct E1 as (KV1 & R1).
    destruct r1 as [[|]|e]; [| |discriminate].
    + (* present *)
      apply IH in H; [|exact SI1]. destruct H as (KV2 & D2).
      split; [eapply KV_trans; eauto|].
      destruct D2 as [(P2 & IX2 & L2 & T2)|(pos & o & i & X1 & X2)].
      2:{ right. exists pos, o, i. split; [right; exact X1|exact X2]. }
      destruct R1 as [(P1 & IX1 & ST1 & L1)|LF1].
      * left. split; [congruence|]. split; [eapply incl_tran; eauto|]. split; [auto|].
        intros pos o i [E|Hin].
        -- inversion E; subst. left. eapply settled_same; eauto.
        -- exact (T2 pos o i Hin).
      * right. exists pos0, o0, i0. split; [left; reflexivity|auto].
    + (* missing *)
      destruct R1 as [-> LN].
      apply IH in H; [|exact SI1]. destruct H as (KV2 & D2).
      split; [exact KV2|].
      destruct D2 as [(P2 & IX2 & L2 & T2)|(pos & o & i & X1 & X2)].
      * left. split; [exact P2|]. split; [exact IX2|]. split; [exact L2|].
        intros pos o i [E|Hin].
        -- inversion E; subst. right. eapply ls_none_KV; eauto.
        -- exact (T2 pos o i Hin).
      * right. exists pos, o, i. split; [right; exact X1|exact X2].
Qed.

Theorem find_missing_leaves w s ds m s1 :
  sinv w s -> find_missing w s ds = (Ok m, s1) ->
  FMI w s1 ds \/ (exists pos o i, nth_error ds pos = Some (o, i) /\ LSF w s1 o i).
Proof.
  intros SI H. pose proof SI as (K & EI & HH). unfold find_missing in H.
  set (numbered := enumerate 0 ds) in *.
  set (f1 := fun '(_, (o, i)) => match least_specific s (lookup_keys w o i) with None => true | Some _ => false end) in H.
  set (f2 := fun '(_, (o, i)) => match least_specific s (lookup_keys w o i) with
                                   | Some (_, l) => needs_refresh s l | None => false end) in H.
  pose proof H as H0. apply fm_phase2_inv in H; [|exact SI]. destruct H as (KV1 & D).
  assert (SI1 : sinv w s1).
  { apply fm_phase2_spec in H0; [|exact K]. destruct H0 as [H0 _].
    split; [exact (ext_kinv _ _ _ H0 K)|exact (proj2 H0 (proj2 SI))]. }
  destruct D as [(P & IX & LP & T)|(pos & o & i & X1 & X2)].
  - left. intros o i Hin.
    apply In_nth_error in Hin. destruct Hin as [p Hp].
    pose proof (enumerate_nth ds 0 p (o, i) Hp) as HN. cbn in HN. fold numbered in HN.
    destruct (least_specific s (lookup_keys w o i)) as [[k l]|] eqn:LS.
    + destruct (needs_refresh s l) eqn:NR.
      * apply (T p o i). apply filter_In. split; [exact HN|]. cbn. rewrite LS. exact NR.
      * left. apply LSF_settled; [exact (proj2 (proj2 SI1))|]. apply LP. exists k, l. auto.
    + right. eapply ls_none_KV; eauto.
  - right. apply filter_In in X1. destruct X1 as [X1 _]. apply enumerate_in in X1. destruct X1 as [_ X1].
    exists (pos - 0)%nat, o, i. auto.
Qed.

Lemma fm_phase2_count w : forall todo s missing m s',
  sinv w s -> fm_phase2 w s todo missing = (Ok m, s') ->
  (length m <= length missing + length todo)%nat /\
  (sigs s' = sigs s \/ (length m + 1 <= length missing + length todo)%nat).
Proof.
  induction todo as [|[pos0 [o0 i0]] t IH]; intros s missing m s' SI H; cbn [fm_phase2] in H.
  - inversion H; subst. cbn. split; [lia|left; reflexivity].
  - destruct (fm_refresh_one w s o0 i0) as [r1 s1] eqn:E1.
    pose proof (sinv_refresh_one _ _ _ _ _ _ SI E1) as SI1.
    destruct SI as (K & EI & HH).
    apply fm_refresh_one_inv in E1; auto. destruct E1 as (_ & R1).
    destruct r1 as [[|]|e]; [| |discriminate].
    + apply IH in H; [|exact SI1]. destruct H as [L _]. cbn [length]. clear - L. split; [lia|right; lia].
    + destruct R1 as [-> _]. apply IH in H; [|exact SI1]. destruct H as [L D].
      rewrite app_length in L, D. cbn [length] in *. clear - L D. split; [lia|]. destruct D as [D|D]; [left; exact D|right; lia].
Qed.

Lemma filter_count {X} (f1 f2 : X -> bool) : (forall y, f1 y && f2 y = false) ->
  forall l, (length (filter f1 l) + length (filter f2 l) <= length l)%nat /\
            (forall x, In x l -> f1 x = false -> f2 x = false ->
               (length (filter f1 l) + length (filter f2 l) + 1 <= length l)%nat).
Proof.
  intros EX. induction l as [|y t [IH1 IH2]]; cbn [filter length]; [split; [lia|intros x []]|].
  specialize (EX y).
  destruct (f1 y) eqn:E1, (f2 y) eqn:E2; cbn [length]; try discriminate.
  - split; [lia|]. intros x [->|Hx] A B; [congruence|]. specialize (IH2 x Hx A B). lia.
  - split; [lia|]. intros x [->|Hx] A B; [congruence|]. specialize (IH2 x Hx A B). lia.
  - split; [lia|]. intros x [->|Hx] A B; [lia|]. specialize (IH2 x Hx A B). lia.
Qed.

Lemma length_insert_nat n l : length (insert_nat n l) = S (length l).
Proof. induction l as [|h t IH]; cbn; [reflexivity|]. destruct (Nat.leb n h); cbn; [reflexivity|]. rewrite IH. reflexivity. Qed.
Lemma length_sort_nat l : length (sort_nat l) = length l.
Proof. unfold sort_nat. induction l as [|h t IH]; cbn; [reflexivity|]. rewrite length_insert_nat, IH. reflexivity. Qed.

Theorem repeat_call_count w s1 ds m2 s2 pos o i :
  sinv w s1 -> nth_error ds pos = Some (o, i) -> LSF w s1 o i ->
  find_missing w s1 ds = (Ok m2, s2) -> sigs s2 <> sigs s1 ->
  (length m2 + 2 <= length ds)%nat.
Proof.
  intros SI HN (k & l & LS & NR) H NE. unfold find_missing in H.
  set (numbered := enumerate 0 ds) in *.
  set (f1 := fun '(_, (o, i)) => match least_specific s1 (lookup_keys w o i) with None => true | Some _ => false end) in H.
  set (f2 := fun '(_, (o, i)) => match least_specific s1 (lookup_keys w o i) with
                                   | Some (_, l) => needs_refresh s1 l | None => false end) in H.
  apply fm_phase2_count in H; [|exact SI]. destruct H as [_ [E|L]]; [contradiction|].
  rewrite map_length in L.
  assert (EX : forall y, f1 y && f2 y = false).
  { intros [p [o' i']]. cbn. destruct (least_specific s1 (lookup_keys w o' i')) as [[? ?]|]; reflexivity. }
  pose proof (enumerate_nth ds 0 pos (o, i) HN) as HI. cbn in HI. fold numbered in HI.
  destruct (filter_count f1 f2 EX numbered) as [_ C].
  specialize (C (pos, (o, i)) HI). cbn in C. rewrite LS, NR in C. specialize (C eq_refl eq_refl).
  unfold numbered in C at 3. rewrite enumerate_length in C. lia.
Qed.
