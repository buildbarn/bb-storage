(** C01 proofs: provenance / thread-id part, the monitor's side.  [PInv]
    relates the monitor's bookkeeping to the model state: every index key is
    covered by an uploaded object, and every parked thread is accounted for
    in the monitor's tables.  One monitor step on one model step preserves
    it and adds no violation ([ev_all]).  With that, "the C01 monitor is
    silent on the model's own observations" is reduced to a data invariant
    [DS] of the store (proved elsewhere): clause 2 (provenance) and the
    thread-id bookkeeping are proved here from the schedule hypotheses
    [wf_ops] and [wf_tids]; clauses 1 and 3 follow from [read_ok] before the
    first corruption and from the validating reader afterwards. *)
From Coq Require Import List NArith ZArith Bool Arith Lia.
From BBS Require Import Common.Sx Store.Model Store.Wf Store.WfTids Run.RStore Run.R01
  Store.P01Defs Store.P01Inv Store.Basics Store.P01ProvA.
Import ListNotations.
Local Open Scope nat_scope.

Definition pfind (pending : list (nat * (nat * nat))) (tid : nat) : option (nat * (nat * nat)) :=
  find (fun e => Nat.eqb (fst e) tid) pending.

Section Inv.
Variable w : world.
Notation puts_t := (list (nat * (nat * nat))).
Notation gfcs_t := (list (nat * (nat * nat * nat))).

Definition thr_ok (puts : puts_t) (gfcs : gfcs_t) (up : list (nat * nat)) (tid : nat) (t : thread) : Prop :=
  match t with
  | TPut o i _ _ => assoc puts tid = Some (o, i)
  | TPutExisting o i _ => assoc puts tid = Some (o, i) /\ c_hier (w_cfg w) = true
  | TGet o _ _ _ fk => forall k, In k fk -> kcov w up k
  | TGfc p i _ _ _ pk =>
      c_hier (w_cfg w) = false /\ kcov w up pk /\ visible w up p i = true /\
      exists ch, assoc gfcs tid = Some (p, i, ch)
  | TGfcErr e => e <> 0%Z
  end.

Record PInv (puts gets : puts_t) (gfcs : gfcs_t) (up : list (nat * nat)) (s : state)
       (pending : list (nat * (nat * nat))) (seen : list nat) : Prop := {
  p_idx : icov w up s;
  p_thr : forall tid t, thr_get (s_threads s) tid = Some t -> thr_ok puts gfcs up tid t;
  p_gets : forall tid ob i, assoc gets tid = Some (ob, i) ->
      In tid seen /\ visible w up ob i = true /\
      (forall o uid l rf fk, thr_get (s_threads s) tid = Some (TGet o uid l rf fk) -> o = ob);
  p_gfcs : forall tid p i ch, assoc gfcs tid = Some (p, i, ch) ->
      In tid seen /\ pfind pending tid = Some (tid, (p, ch)) /\
      (forall o uid l rf fk, thr_get (s_threads s) tid = Some (TGet o uid l rf fk) ->
                             o = p /\ visible w up p i = true);
}.

Lemma thr_ok_mono puts gfcs up up' tid t :
  (forall x, In x up -> In x up') -> thr_ok puts gfcs up tid t -> thr_ok puts gfcs up' tid t.
Proof.
  intros Hs. destruct t; cbn [thr_ok]; auto.
  - intros H k Hk. eapply kcov_mono; eauto.
  - intros (A & B & C & D). split; [exact A|]. split; [eapply kcov_mono; eauto|].
    split; [eapply visible_mono; eauto|exact D].
Qed.

Section Preserved.
Variables (puts gets : puts_t) (gfcs : gfcs_t) (up : list (nat * nat)) (s : state)
  (pd : list (nat * (nat * nat))) (sn : list nat).
Hypothesis HP : PInv puts gets gfcs up s pd sn.

Lemma pinv_state up' s' :
  s_threads s' = s_threads s ->
  (forall x, In x up -> In x up') -> icov w up' s' ->
  PInv puts gets gfcs up' s' pd sn.
Proof.
  destruct HP as [A B C D]. intros T Hs IC. split.
  - exact IC.
  - intros tid t H. rewrite T in H. eapply thr_ok_mono; eauto.
  - intros tid ob i H. destruct (C _ _ _ H) as (C1 & C2 & C3). split; [exact C1|].
    split; [eapply visible_mono; eauto|]. rewrite T. exact C3.
  - intros tid p i ch H. destruct (D _ _ _ _ H) as (D1 & D2 & D3). split; [exact D1|].
    split; [exact D2|]. rewrite T. intros o uid l rf fk G. destruct (D3 _ _ _ _ _ G) as [X Y].
    split; [exact X|eapply visible_mono; eauto].
Qed.

Lemma pinv_ext up' (P : key -> Prop) s' :
  ext P s s' -> (forall x, In x up -> In x up') ->
  (forall k, P k -> kcov w up' k) -> PInv puts gets gfcs up' s' pd sn.
Proof.
  intros X U PK. apply pinv_state; [apply X|exact U|].
  eapply ext_icov; [exact X|eapply icov_mono; [exact U|apply HP]|exact PK].
Qed.

Lemma pinv_same s' : same s s' -> PInv puts gets gfcs up s' pd sn.
Proof.
  intros S. apply (pinv_ext up (fun _ => False)); [apply same_ext; exact S|auto|].
  intros k [].
Qed.

Lemma pinv_rm tid : PInv puts gets gfcs up (thr_rm s tid) pd sn.
Proof.
  destruct HP as [A B C D]. split.
  - exact A.
  - intros tid' t H. rewrite thr_get_rm in H. destruct (Nat.eqb tid tid'); [discriminate|auto].
  - intros tid' ob i H. destruct (C _ _ _ H) as (C1 & C2 & C3). split; [exact C1|]. split; [exact C2|].
    intros o uid l rf fk G. rewrite thr_get_rm in G. destruct (Nat.eqb tid tid'); [discriminate|eauto].
  - intros tid' p i ch H. destruct (D _ _ _ _ H) as (D1 & D2 & D3). split; [exact D1|]. split; [exact D2|].
    intros o uid l rf fk G. rewrite thr_get_rm in G. destruct (Nat.eqb tid tid'); [discriminate|eauto].
Qed.

Lemma pinv_seen t : PInv puts gets gfcs up s pd (t :: sn).
Proof.
  destruct HP as [A B C D]. split; auto.
  - intros tid ob i H. destruct (C _ _ _ H) as (C1 & C2 & C3). split; [right; exact C1|auto].
  - intros tid p i ch H. destruct (D _ _ _ _ H) as (D1 & D2 & D3). split; [right; exact D1|auto].
Qed.

Lemma pinv_pending t x : ~ In t sn -> PInv puts gets gfcs up s ((t, x) :: pd) sn.
Proof.
  destruct HP as [A B C D]. intros NS. split; auto.
  intros tid p i ch H. destruct (D _ _ _ _ H) as (D1 & D2 & D3). split; [exact D1|]. split; [|exact D3].
  unfold pfind. cbn [find fst]. destruct (Nat.eqb t tid) eqn:E; [|exact D2].
  apply Nat.eqb_eq in E. subst. contradiction.
Qed.

Lemma pinv_puts puts' :
  (forall tid, thr_get (s_threads s) tid <> None -> assoc puts' tid = assoc puts tid) ->
  PInv puts' gets gfcs up s pd sn.
Proof.
  destruct HP as [A B C D]. intros HA. split; auto.
  intros tid t H. pose proof (B _ _ H) as X. assert (E : assoc puts' tid = assoc puts tid) by (apply HA; congruence).
  destruct t; cbn [thr_ok] in *; try rewrite E; auto.
Qed.

Lemma pinv_gets_rm tid : PInv puts (unassoc gets tid) gfcs up s pd sn.
Proof.
  destruct HP as [A B C D]. split; auto.
  intros tid' ob i H. rewrite assoc_unassoc in H. destruct (Nat.eqb tid' tid); [discriminate|eauto].
Qed.

Lemma pinv_gets_add tid ob i :
  In tid sn -> visible w up ob i = true ->
  (forall o uid l rf fk, thr_get (s_threads s) tid = Some (TGet o uid l rf fk) -> o = ob) ->
  PInv puts ((tid, (ob, i)) :: gets) gfcs up s pd sn.
Proof.
  destruct HP as [A B C D]. intros HS HV HT. split; auto.
  intros tid' ob' i' H. rewrite assoc_cons in H. destruct (Nat.eqb tid' tid) eqn:E; [|eauto].
  apply Nat.eqb_eq in E. subst tid'. injection H as <- <-. auto.
Qed.

Definition not_tgfc (o : option thread) : Prop :=
  match o with Some (TGfc _ _ _ _ _ _) => False | _ => True end.

Lemma pinv_gfcs_rm tid :
  not_tgfc (thr_get (s_threads s) tid) ->
  PInv puts gets (unassoc gfcs tid) up s pd sn.
Proof.
  destruct HP as [A B C D]. intros NT. split; auto.
  - intros tid' t H. pose proof (B _ _ H) as X. destruct t; cbn [thr_ok] in *; auto.
    destruct X as (X1 & X2 & X3 & ch & X4). split; [exact X1|]. split; [exact X2|]. split; [exact X3|].
    exists ch. rewrite assoc_unassoc. destruct (Nat.eqb tid' tid) eqn:E; [|exact X4].
    apply Nat.eqb_eq in E. subst tid'. rewrite H in NT. contradiction.
  - intros tid' p i ch H. rewrite assoc_unassoc in H. destruct (Nat.eqb tid' tid); [discriminate|eauto].
Qed.

Lemma pinv_gfcs_add tid p i ch :
  thr_get (s_threads s) tid = None -> In tid sn ->
  pfind pd tid = Some (tid, (p, ch)) ->
  PInv puts gets ((tid, (p, i, ch)) :: gfcs) up s pd sn.
Proof.
  destruct HP as [A B C D]. intros HN HS HF. split; auto.
  - intros tid' t H. pose proof (B _ _ H) as X. destruct t; cbn [thr_ok] in *; auto.
    destruct X as (X1 & X2 & X3 & ch' & X4). split; [exact X1|]. split; [exact X2|]. split; [exact X3|].
    exists ch'. rewrite assoc_cons. destruct (Nat.eqb tid' tid) eqn:E; [|exact X4].
    apply Nat.eqb_eq in E. subst tid'. congruence.
  - intros tid' p' i' ch' H. rewrite assoc_cons in H. destruct (Nat.eqb tid' tid) eqn:E; [|eauto].
    apply Nat.eqb_eq in E. subst tid'. injection H as <- <- <-. split; [exact HS|]. split; [exact HF|].
    intros o uid l rf fk G. congruence.
Qed.

Lemma pinv_set tid t :
  thr_ok puts gfcs up tid t ->
  (forall o uid l rf fk, t = TGet o uid l rf fk ->
     (forall ob i, assoc gets tid = Some (ob, i) -> o = ob) /\
     (forall p i ch, assoc gfcs tid = Some (p, i, ch) -> o = p /\ visible w up p i = true)) ->
  PInv puts gets gfcs up (thr_set s tid t) pd sn.
Proof.
  destruct HP as [A B C D]. intros HT HG. split.
  - exact A.
  - intros tid' t' H. rewrite thr_get_set in H. destruct (Nat.eqb tid tid') eqn:E; [|auto].
    apply Nat.eqb_eq in E. subst tid'. injection H as <-. exact HT.
  - intros tid' ob i H. destruct (C _ _ _ H) as (C1 & C2 & C3). split; [exact C1|]. split; [exact C2|].
    intros o uid l rf fk G. rewrite thr_get_set in G. destruct (Nat.eqb tid tid') eqn:E; [|eauto].
    apply Nat.eqb_eq in E. subst tid'. injection G as G. destruct (HG _ _ _ _ _ G) as [X _]. eauto.
  - intros tid' p i ch H. destruct (D _ _ _ _ H) as (D1 & D2 & D3). split; [exact D1|]. split; [exact D2|].
    intros o uid l rf fk G. rewrite thr_get_set in G. destruct (Nat.eqb tid tid') eqn:E; [|eauto].
    apply Nat.eqb_eq in E. subst tid'. injection G as G. destruct (HG _ _ _ _ _ G) as [_ X]. eauto.
Qed.

Lemma pinv_gets_none tid : ~ In tid sn -> assoc gets tid = None /\ assoc gfcs tid = None.
Proof.
  destruct HP as [A B C D]. intros NS. split.
  - destruct (assoc gets tid) as [[ob i]|] eqn:E; [|reflexivity]. destruct (C _ _ _ E) as [X _]. contradiction.
  - destruct (assoc gfcs tid) as [[[p i] ch]|] eqn:E; [|reflexivity]. destruct (D _ _ _ _ E) as [X _]. contradiction.
Qed.

End Preserved.

End Inv.

Definition quiet (m : m01) (o : sx) : Prop := (0 <? ob_negs o)%Z && negb (m_corrupted m) = false.

Lemma step_corrupted w m e o : m_corrupted (mon01_step w m e o) = m_corrupted m || is_corrupt e.
Proof.
  unfold mon01_step. set (m0 := if (0 <? ob_negs o)%Z && negb (m_corrupted m) then add_viol m [3%Z] else m).
  assert (E : m_corrupted m0 = m_corrupted m)
    by (unfold m0; destruct ((0 <? ob_negs o)%Z && negb (m_corrupted m)); reflexivity).
  rewrite <- E. clearbody m0. cbv zeta.
  destruct e; cbn [is_corrupt]; rewrite ?orb_false_r, ?orb_true_r;
  repeat match goal with
         | |- m_corrupted (if ?b then _ else _) = _ => destruct b
         | |- m_corrupted (match ?x with Some _ => _ | None => _ end) = _ => destruct x
         | |- m_corrupted (let '(_, _) := ?x in _) = _ => destruct x
         end; reflexivity.
Qed.

Definition PI (w : world) (m : m01) := PInv w (m_puts m) (m_gets m) (m_gfcs m) (m_uploaded m).

Lemma chk1 w m bytes x :
  (c_validate (w_cfg w) = true -> bytes = x) -> (m_corrupted m = false -> bytes = x) ->
  negb (bytes_eqb bytes x) && (c_validate (w_cfg w) || negb (m_corrupted m)) = false.
Proof.
  intros A B. destruct (c_validate (w_cfg w)).
  - rewrite A by reflexivity. rewrite bytes_eqb_refl. reflexivity.
  - destruct (m_corrupted m); cbn [negb orb]; [apply andb_false_r|].
    rewrite B by reflexivity. rewrite bytes_eqb_refl. reflexivity.
Qed.

Lemma check_read_ok w m ob i bytes :
  (c_validate (w_cfg w) = true -> bytes = content w ob) -> (m_corrupted m = false -> bytes = content w ob) ->
  visible w (m_uploaded m) ob i = true -> check_read w m ob i bytes = [].
Proof. intros A B V. unfold check_read. rewrite chk1 by assumption. rewrite V. reflexivity. Qed.

Section Events.
Variable w : world.
Variables (m : m01) (s : state) (pd : list (nat * (nat * nat))) (sn : list nat).
Hypothesis HP : PI w m s pd sn.
Hypothesis HV : m_viol m = [].

Definition ev_ok (e : op) (s1 : state) (o : out) (pd' : list (nat * (nat * nat))) (sn' : list nat) : Prop :=
  quiet m (enc_obs (w_cfg w) e s s1 o) ->
  let m1 := mon01_step w m e (enc_obs (w_cfg w) e s s1 o) in
  PI w m1 s1 pd' sn' /\ m_viol m1 = [].

Lemma ev_putstart tid o i s1 out :
  ~ In tid sn -> step w s (OPutStart tid o i) = (s1, out) ->
  ev_ok (OPutStart tid o i) s1 out pd (tid :: sn).
Proof.
  intros NS ST Q. apply step_putstart in ST. unfold quiet in Q. unfold mon01_step. rewrite Q.
  destruct ST as [[-> ->]|(ET & s' & S1 & [(e & -> & ->)|(t & -> & -> & PT)])].
  - rewrite dk_bad. cbn [Z.eqb]. split; [apply pinv_seen; exact HP|exact HV].
  - rewrite dk_done. cbn [Z.eqb]. split; [apply pinv_seen; eapply pinv_same; eauto|exact HV].
  - rewrite dk_parked. cbn [Z.eqb Pos.eqb]. split; [|exact HV].
    unfold PI. cbn [m_puts m_gets m_gfcs m_uploaded].
    assert (ET' : thr_get (s_threads s') tid = None) by (destruct S1 as [_ T]; rewrite T; exact ET).
    apply pinv_set.
    + eapply pinv_puts; [apply pinv_seen; eapply pinv_same; [exact HP|exact S1]|].
      intros tid' H. rewrite assoc_cons. destruct (Nat.eqb tid' tid) eqn:E; [|reflexivity].
      apply Nat.eqb_eq in E. subst. contradiction.
    + destruct PT as [(wr & acc & ->)|[(acc & ->) Hh]]; cbn [thr_ok]; rewrite assoc_cons, Nat.eqb_refl; auto.
    + intros o' uid l rf fk E. destruct PT as [(wr & acc & ->)|[(acc & ->) Hh]]; discriminate.
Qed.

Lemma rm_puts_ok s' tid :
  forall tid', thr_get (s_threads (thr_rm s' tid)) tid' <> None ->
               assoc (unassoc (m_puts m) tid) tid' = assoc (m_puts m) tid'.
Proof.
  intros tid' H. rewrite thr_get_rm in H. rewrite assoc_unassoc.
  destruct (Nat.eqb tid tid') eqn:E; [contradiction|]. rewrite Nat.eqb_sym, E. reflexivity.
Qed.

Lemma ev_putchunk tid data s1 out :
  step w s (OPutChunk tid data) = (s1, out) ->
  ev_ok (OPutChunk tid data) s1 out pd sn.
Proof.
  intros ST Q. apply step_putchunk in ST. unfold quiet in Q. unfold mon01_step. rewrite Q.
  destruct (thr_get (s_threads s) tid) as [t|] eqn:ET.
  2:{ destruct ST as [-> ->]. rewrite dk_bad. cbn [Z.eqb]. auto. }
  pose proof (p_thr _ _ _ _ _ _ _ _ HP _ _ ET) as TO.
  destruct t as [o i wr acc|o i acc| | |]; cbn [thr_ok] in TO;
    try (destruct ST as [-> ->]; rewrite dk_bad; cbn [Z.eqb]; auto; fail).
  - destruct ST as (s' & S1 & [[-> ->]|(acc' & -> & ->)]).
    + rewrite dk_done, dok_done. cbn [Z.eqb]. rewrite TO. split; [|exact HV].
      unfold PI. cbn [m_puts m_gets m_gfcs m_uploaded].
      eapply pinv_puts; [apply pinv_rm; eapply pinv_same; [exact HP|exact S1]|apply rm_puts_ok].
    + rewrite dk_parked. cbn [Z.eqb]. split; [|exact HV].
      apply pinv_set; [eapply pinv_same; [exact HP|exact S1]|exact TO|discriminate].
  - destruct ST as [[-> ->]|(acc' & -> & ->)].
    + rewrite dk_done, dok_done. cbn [Z.eqb]. destruct TO as [TO Hh]. rewrite TO. split; [|exact HV].
      unfold PI. cbn [m_puts m_gets m_gfcs m_uploaded].
      eapply pinv_puts; [apply pinv_rm; exact HP|apply rm_puts_ok].
    + rewrite dk_parked. cbn [Z.eqb]. split; [|exact HV].
      apply pinv_set; [exact HP|exact TO|discriminate].
Qed.

Lemma put_done tid o i (P : key -> Prop) s' code :
  ext (fun k => code = 0%Z /\ P k) s s' ->
  (forall k, P k -> kcov w ((o, i) :: m_uploaded m) k) ->
  PInv w (unassoc (m_puts m) tid) (m_gets m) (m_gfcs m)
       (if Z.eqb code 0 then (o, i) :: m_uploaded m else m_uploaded m) (thr_rm s' tid) pd sn.
Proof.
  intros X PK.
  assert (U : forall x, In x (m_uploaded m) ->
                In x (if Z.eqb code 0 then (o, i) :: m_uploaded m else m_uploaded m)).
  { intros x Hx. destruct (Z.eqb code 0); [right|]; exact Hx. }
  eapply pinv_puts; [apply pinv_rm|apply rm_puts_ok].
  eapply pinv_ext; [exact HP|exact X|exact U|].
  intros k [-> Hk]. cbn [Z.eqb]. apply PK. exact Hk.
Qed.

Lemma ev_putend tid err s1 out :
  step w s (OPutEnd tid err) = (s1, out) ->
  ev_ok (OPutEnd tid err) s1 out pd sn.
Proof.
  intros ST Q. apply step_putend in ST. unfold quiet in Q. unfold mon01_step. rewrite Q.
  destruct (thr_get (s_threads s) tid) as [t|] eqn:ET.
  2:{ destruct ST as [-> ->]. rewrite dk_bad. cbn [Z.eqb]. auto. }
  pose proof (p_thr _ _ _ _ _ _ _ _ HP _ _ ET) as TO.
  destruct t as [o i wr acc|o i acc| | |]; cbn [thr_ok] in TO;
    try (destruct ST as [-> ->]; rewrite dk_bad; cbn [Z.eqb]; auto; fail).
  - destruct ST as (s' & code & -> & -> & X).
    rewrite dk_done, dok_done. cbn [Z.eqb]. rewrite TO. split; [|exact HV].
    apply (put_done _ _ _ _ _ _ X). intros k Hk. eapply kcov_finalize_keys; [left; reflexivity|exact Hk].
  - destruct TO as [TO Hh]. destruct ST as (s' & code & -> & -> & X).
    rewrite dk_done, dok_done. cbn [Z.eqb]. rewrite TO. split; [|exact HV].
    apply (put_done _ _ _ _ _ _ X). intros k ->. apply kcov_inst; [exact Hh|left; reflexivity].
Qed.

Lemma ev_getopen tid o i s1 out :
  ~ In tid sn -> step w s (OGetOpen tid o i) = (s1, out) ->
  ev_ok (OGetOpen tid o i) s1 out pd (tid :: sn).
Proof.
  intros NS ST Q. apply (step_getopen w (m_uploaded m)) in ST; [|apply HP]. unfold quiet in Q. unfold mon01_step. rewrite Q.
  destruct (pinv_gets_none _ _ _ _ _ _ _ _ HP _ NS) as [GN FN].
  destruct ST as [[-> ->]|(ET & s' & T1 & I1 & [(e & -> & ->)|(t & -> & -> & TG & V)])].
  - rewrite dk_bad. cbn [Z.eqb]. split; [apply pinv_seen; exact HP|exact HV].
  - rewrite dk_done. cbn [Z.eqb]. split; [|exact HV]. apply pinv_seen. eapply pinv_state; eauto.
  - rewrite dk_parked. cbn [Z.eqb Pos.eqb]. split; [|exact HV].
    unfold PI. cbn [m_puts m_gets m_gfcs m_uploaded].
    assert (ET' : thr_get (s_threads s') tid = None) by (rewrite T1; exact ET).
    destruct TG as (uid & l & rf & fk & -> & FK).
    apply pinv_set.
    + apply pinv_gets_add; [apply pinv_seen; eapply pinv_state; eauto|left; reflexivity|exact V|].
      intros o' uid' l' rf' fk' G. congruence.
    + exact FK.
    + intros o' uid' l' rf' fk' E. injection E as <- _ _ _ _. split.
      * intros ob i' H. rewrite assoc_cons, Nat.eqb_refl in H. injection H as <- _. reflexivity.
      * intros p i' ch H. congruence.
Qed.

Lemma ev_corrupt r off len s1 out :
  step w s (OCorrupt r off len) = (s1, out) ->
  ev_ok (OCorrupt r off len) s1 out pd sn.
Proof.
  intros ST Q. apply step_corrupt in ST. destruct ST as (S1 & _ & _). unfold quiet in Q. unfold mon01_step. rewrite Q.
  split; [|exact HV]. unfold PI. cbn [m_puts m_gets m_gfcs m_uploaded]. eapply pinv_same; eauto.
Qed.

Lemma ev_findmissing ds s1 out :
  step w s (OFindMissing ds) = (s1, out) ->
  ev_ok (OFindMissing ds) s1 out pd sn.
Proof.
  intros ST Q. apply (step_findmissing w (m_uploaded m)) in ST; [|apply HP]. unfold quiet in Q. unfold mon01_step. rewrite Q.
  destruct ST as (T1 & I1 & R).
  assert (P1 : PI w m s1 pd sn) by (eapply pinv_state; eauto).
  destruct R as [->|(code & ml & -> & R)].
  - rewrite dk_bad. cbn [Z.eqb andb]. auto.
  - rewrite dk_missing, dc_missing, dm_missing. cbn [Z.eqb Pos.eqb andb].
    destruct (Z.eqb code 0) eqn:EC; [|auto]. apply Z.eqb_eq in EC.
    match goal with |- context [if ?b then m else _] => assert (F : b = true) end.
    { apply forallb_forall. intros [pos [ob i]] Hin. apply filter_In in Hin. destruct Hin as [Hin Hn].
      destruct (R EC pos ob i Hin) as [X|X]; [|exact X].
      apply existsb_eqb_in in X. rewrite X in Hn. discriminate. }
    rewrite F. auto.
Qed.

Lemma add_viol_nil (m' : m01) : m_viol m' = [] -> m_viol (add_viol m' []) = [].
Proof. intros H. cbn. rewrite H. reflexivity. Qed.

Lemma ev_getconsume tid s1 out :
  step w s (OGetConsume tid) = (s1, out) ->
  (m_corrupted m = false -> read_ok w s (OGetConsume tid) s1 out) ->
  ev_ok (OGetConsume tid) s1 out pd sn.
Proof.
  intros ST RO Q. apply step_getconsume in ST.
  assert (M : PI w m s1 pd sn /\
     forall ob i, assoc (m_gets m) tid = Some (ob, i) ->
       ob_ok (enc_obs (w_cfg w) (OGetConsume tid) s s1 out) = true ->
       check_read w m ob i (ob_bytes (enc_obs (w_cfg w) (OGetConsume tid) s s1 out)) = []).
  { destruct (thr_get (s_threads s) tid) as [[| |o uid l rf fk| |]|] eqn:ET;
      try (destruct ST as [-> ->]; split; [exact HP|intros ob i _ OK; rewrite dok_bad in OK; discriminate]).
    pose proof (p_thr _ _ _ _ _ _ _ _ HP _ _ ET) as TO. cbn [thr_ok] in TO.
    destruct ST as (s' & code & bytes & -> & -> & X & V). split.
    - apply pinv_rm. eapply pinv_ext; [exact HP|exact X|auto|exact TO].
    - intros ob i EA OK. rewrite dok_done in OK. apply Z.eqb_eq in OK. rewrite db_done.
      destruct (p_gets _ _ _ _ _ _ _ _ HP _ _ _ EA) as (_ & VIS & OB).
      rewrite <- (OB _ _ _ _ _ ET) in *. apply check_read_ok; [| |exact VIS].
      + intros Hv. apply V; assumption.
      + intros Hc. destruct (RO Hc) as [_ R]. rewrite ET in R. apply R. exact OK. }
  destruct M as [P1 CR]. unfold quiet in Q. unfold mon01_step. rewrite Q.
  destruct (assoc (m_gets m) tid) as [[ob i]|]; [|auto].
  assert (P2 : PInv w (m_puts m) (unassoc (m_gets m) tid) (m_gfcs m) (m_uploaded m) s1 pd sn)
    by (apply pinv_gets_rm; exact P1).
  destruct (ob_ok _) eqn:OK; [|auto].
  rewrite (CR _ _ eq_refl eq_refl). split; [exact P2|apply add_viol_nil; exact HV].
Qed.

Lemma ev_gfcstart tid p i ch s1 out :
  ~ In tid sn -> step w s (OGfcStart tid p i ch) = (s1, out) ->
  (m_corrupted m = false -> read_ok w s (OGfcStart tid p i ch) s1 out) ->
  ev_ok (OGfcStart tid p i ch) s1 out ((tid, (p, ch)) :: pd) (tid :: sn).
Proof.
  intros NS ST RO Q. apply (step_gfcstart w (m_uploaded m)) in ST; [|apply HP]. unfold quiet in Q. unfold mon01_step. rewrite Q.
  destruct (pinv_gets_none _ _ _ _ _ _ _ _ HP _ NS) as [GN FN].
  assert (EXT : forall s', s_threads s' = s_threads s -> icov w (m_uploaded m) s' ->
                PI w m s' ((tid, (p, ch)) :: pd) (tid :: sn)).
  { intros s' T1 I1. apply pinv_seen. apply pinv_pending; [|exact NS]. eapply pinv_state; eauto. }
  destruct ST as [[-> ->]|(ET & s' & T1 & I1 & [(code & bytes & -> & -> & Eh & R)|(t & -> & -> & TG)])].
  - rewrite dk_bad, dok_bad. cbn [Z.eqb]. split; [apply EXT; [reflexivity|apply HP]|exact HV].
  - rewrite dk_done, dok_done, db_done. cbn [Z.eqb]. destruct (Z.eqb code 0) eqn:EC; [|auto].
    apply Z.eqb_eq in EC. destruct (R EC) as [VIS V].
    rewrite check_read_ok; [split; [apply EXT; assumption|apply add_viol_nil; exact HV]|exact V| |exact VIS].
    intros Hc. destruct (RO Hc) as [_ R']. apply R'. exact EC.
  - rewrite dk_parked. cbn [Z.eqb Pos.eqb]. split; [|exact HV].
    unfold PI. cbn [m_puts m_gets m_gfcs m_uploaded].
    assert (ET' : thr_get (s_threads s') tid = None) by (rewrite T1; exact ET).
    assert (P1 : PInv w (m_puts m) (m_gets m) ((tid, (p, i, ch)) :: m_gfcs m) (m_uploaded m) s'
                   ((tid, (p, ch)) :: pd) (tid :: sn)).
    { apply pinv_gfcs_add; [apply EXT; assumption|exact ET'|left; reflexivity|].
      unfold pfind. cbn [find fst]. rewrite Nat.eqb_refl. reflexivity. }
    destruct TG as [[Eh [(e & -> & Ne)|[(uid & l & rf & fk & -> & FK) V]]]|[Eh (uid & pl & rf & -> & K & V)]].
    + apply pinv_set; [exact P1|exact Ne|discriminate].
    + apply pinv_set; [exact P1|exact FK|].
      intros o' uid' l' rf' fk' E. injection E as <- _ _ _ _. split.
      * intros ob i' H. congruence.
      * intros p' i' ch' H. rewrite assoc_cons, Nat.eqb_refl in H. injection H as <- <- _. auto.
    + apply pinv_set; [exact P1| |discriminate].
      cbn [thr_ok]. split; [exact Eh|]. split; [exact K|]. split; [exact V|].
      exists ch. rewrite assoc_cons, Nat.eqb_refl. reflexivity.
Qed.

Lemma wf_slice rest tid slices p ch :
  wf_ops w pd (OGfcSlice tid slices :: rest) = true -> pfind pd tid = Some (tid, (p, ch)) ->
  slices_ok w p slices /\ first_slice (content w p) slices = content w ch.
Proof.
  cbn [wf_ops]. fold (pfind pd tid). intros H F. rewrite F in H.
  apply andb_prop in H. destruct H as [H _]. apply andb_prop in H. destruct H as [H1 H2].
  assert (SO : slices_ok w p slices).
  { intros cho off len Hin. rewrite forallb_forall in H2. specialize (H2 _ Hin). cbn beta iota in H2.
    apply andb_prop in H2. destruct H2 as [A B]. apply bytes_eqb_eq in A. apply Nat.leb_le in B. auto. }
  split; [exact SO|]. destruct slices as [|[cho [off len]] tl]; [discriminate|].
  apply Nat.eqb_eq in H1. subst cho. cbn [first_slice]. symmetry. apply (SO ch off len). left; reflexivity.
Qed.

Lemma in_app_r {T} (a b : list T) x : In x b -> In x (a ++ b).
Proof. intros H. apply in_or_app. right; exact H. Qed.

Lemma ev_gfcslice rest tid slices s1 out :
  wf_ops w pd (OGfcSlice tid slices :: rest) = true ->
  step w s (OGfcSlice tid slices) = (s1, out) ->
  (m_corrupted m = false -> read_ok w s (OGfcSlice tid slices) s1 out) ->
  ev_ok (OGfcSlice tid slices) s1 out pd sn.
Proof.
  intros WF ST RO Q. apply step_gfcslice in ST.
  assert (M : not_tgfc (thr_get (s_threads s1) tid) /\
     (assoc (m_gfcs m) tid = None \/ ob_ok (enc_obs (w_cfg w) (OGfcSlice tid slices) s s1 out) = false ->
      PI w m s1 pd sn) /\
     forall p i ch, assoc (m_gfcs m) tid = Some (p, i, ch) ->
       ob_ok (enc_obs (w_cfg w) (OGfcSlice tid slices) s s1 out) = true ->
       negb (bytes_eqb (ob_bytes (enc_obs (w_cfg w) (OGfcSlice tid slices) s s1 out)) (content w ch))
         && (c_validate (w_cfg w) || negb (m_corrupted m)) = false /\
       visible w (m_uploaded m) p i = true /\
       PInv w (m_puts m) (m_gets m) (m_gfcs m)
         ((if c_hier (w_cfg w) then [] else map (fun x => (fst x, i)) slices) ++ m_uploaded m) s1 pd sn).
  { assert (NT : forall s', not_tgfc (thr_get (s_threads (thr_rm s' tid)) tid)).
    { intros s'. rewrite thr_get_rm, Nat.eqb_refl. exact I. }
    destruct (thr_get (s_threads s) tid) as [[| |o uid l rf fk|p i uid pl rf pk|e]|] eqn:ET;
      try (destruct ST as [-> ->]; rewrite ET; split; [exact I|];
           split; [intros _; exact HP|intros p i ch _ OK; rewrite dok_bad in OK; discriminate]);
      pose proof (p_thr _ _ _ _ _ _ _ _ HP _ _ ET) as TO; cbn [thr_ok] in TO.
    - (* hierarchical: the parked thread is an ordinary read of the parent *)
      destruct ST as (s' & code & bytes & -> & -> & X & V). split; [apply NT|].
      split; [intros _; apply pinv_rm; eapply pinv_ext; [exact HP|exact X|auto|exact TO]|].
      intros p i ch EA OK.
      rewrite dok_done in OK. apply Z.eqb_eq in OK. rewrite db_done.
      destruct (p_gfcs _ _ _ _ _ _ _ _ HP _ _ _ _ EA) as (_ & PF & OB).
      destruct (OB _ _ _ _ _ ET) as [-> VIS].
      destruct (wf_slice _ _ _ _ _ WF PF) as [SO FS]. rewrite <- FS.
      split; [apply chk1|split; [exact VIS|]].
      + intros Hv. apply V; assumption.
      + intros Hc. destruct (RO Hc) as [_ R]. rewrite ET in R. apply R. exact OK.
      + apply pinv_rm. eapply pinv_ext; [exact HP|exact X|intros x; apply in_app_r|].
        intros k Hk. eapply kcov_mono; [|apply TO; exact Hk]. intros x; apply in_app_r.
    - (* flat: the slices' keys are covered only once the slices count as uploaded *)
      destruct TO as (Eh & KP & VIS & ch & EA).
      destruct ST as (s' & code & bytes & -> & -> & X & V). split; [apply NT|].
      destruct (p_gfcs _ _ _ _ _ _ _ _ HP _ _ _ _ EA) as (_ & PF & _).
      destruct (wf_slice _ _ _ _ _ WF PF) as [SO FS].
      rewrite dok_done, db_done, EA. split.
      + intros [EN|OK]; [discriminate|]. apply pinv_rm. eapply pinv_ext; [exact HP|exact X|auto|].
        intros k [Hc _]. subst code. discriminate.
      + intros p' i' ch' E OK. injection E as <- <- <-. apply Z.eqb_eq in OK. rewrite <- FS.
        split; [apply chk1|split; [exact VIS|]].
        * intros Hv. apply V; assumption.
        * intros Hc. destruct (RO Hc) as [_ R]. rewrite ET in R. apply R. exact OK.
        * apply pinv_rm. rewrite Eh.
          eapply pinv_ext; [exact HP|exact X|intros x; apply in_app_r|].
          intros k [_ [->|(x & Hx & ->)]].
          -- eapply kcov_mono; [|exact KP]. intros y; apply in_app_r.
          -- apply kcov_flat_key; [exact Eh|]. apply in_or_app. left.
             apply in_map_iff. exists x. split; [reflexivity|exact Hx].
    - destruct ST as [-> ->]. split; [apply NT|]. split; [intros _; apply pinv_rm; exact HP|].
      intros p i ch _ OK. rewrite dok_done in OK. apply Z.eqb_eq in OK. contradiction. }
  destruct M as (NT & P0 & OKC). unfold quiet in Q. unfold mon01_step. rewrite Q.
  cbn [add_viol m_puts m_gets m_gfcs m_uploaded m_corrupted m_viol].
  destruct (assoc (m_gfcs m) tid) as [[[p i] ch]|].
  2:{ split; [apply P0; left; reflexivity|exact HV]. }
  destruct (ob_ok _).
  - destruct (OKC _ _ _ eq_refl eq_refl) as (C1 & VIS & P2). rewrite C1, VIS.
    cbn [app]. split; [|rewrite HV; reflexivity].
    unfold PI. cbn [m_puts m_gets m_gfcs m_uploaded]. apply pinv_gfcs_rm; [exact P2|exact NT].
  - split; [|exact HV]. unfold PI. cbn [m_puts m_gets m_gfcs m_uploaded].
    apply pinv_gfcs_rm; [apply P0; right; reflexivity|exact NT].
Qed.
End Events.

Definition pd_next (pd : list (nat * (nat * nat))) (e : op) : list (nat * (nat * nat)) :=
  match e with OGfcStart tid p _ ch => (tid, (p, ch)) :: pd | _ => pd end.
Definition sn_next (sn : list nat) (e : op) : list nat :=
  match start_tid e with Some t => t :: sn | None => sn end.

Lemma wf_ops_next w pd e rest : wf_ops w pd (e :: rest) = true -> wf_ops w (pd_next pd e) rest = true.
Proof.
  destruct e; cbn [wf_ops pd_next]; intros H; try exact H;
    repeat (apply andb_prop in H; destruct H as [? H]); exact H.
Qed.
Lemma pinv_step_wf w m s pd sn e rest :
  PI w m s pd sn -> wf_ops w pd (e :: rest) = true -> step_wf w s e.
Proof.
  intros HP WF. destruct e; cbn [step_wf]; try exact I.
  destruct (thr_get (s_threads s) tid) as [t|] eqn:ET; [|exact I].
  destruct t; try exact I.
  pose proof (p_thr _ _ _ _ _ _ _ _ HP _ _ ET) as TO. cbn [thr_ok] in TO.
  destruct TO as (_ & _ & _ & ch & EA).
  destruct (p_gfcs _ _ _ _ _ _ _ _ HP _ _ _ _ EA) as (_ & PF & _).
  eapply wf_slice; eauto.
Qed.

Lemma ev_all w m s pd sn e rest s1 out :
  PI w m s pd sn -> m_viol m = [] ->
  wf_ops w pd (e :: rest) = true -> wf_tids_from sn (e :: rest) = true ->
  step w s e = (s1, out) ->
  (m_corrupted m = false -> read_ok w s e s1 out) ->
  ev_ok w m s e s1 out (pd_next pd e) (sn_next sn e).
Proof.
  intros HP HV WF WT ST RO. apply wf_tids_from_cons in WT. destruct WT as [NS _].
  destruct e; cbn [pd_next sn_next start_tid] in *.
  - eapply ev_putstart; eauto.
  - eapply ev_putchunk; eauto.
  - eapply ev_putend; eauto.
  - eapply ev_getopen; eauto.
  - eapply ev_getconsume; eauto.
  - eapply ev_findmissing; eauto.
  - eapply ev_gfcstart; eauto.
  - eapply ev_gfcslice; eauto.
  - eapply ev_corrupt; eauto.
Qed.

Lemma pinv_init w : PI w m01_init (init_state (w_cfg w)) [] [].
Proof.
  unfold PI. cbn [m01_init m_puts m_gets m_gfcs m_uploaded]. split.
  - intros k l H. destruct H.
  - intros tid t H. discriminate.
  - intros tid ob i H. discriminate.
  - intros tid p i ch H. discriminate.
Qed.

Definition obs_from (w : world) (s : state) (es : list op) : list sx :=
  map (fun '(e, (s0, s1, o)) => enc_obs (w_cfg w) e s0 s1 o) (combine es (run_states w s es)).

Lemma obs_from_cons w s e es :
  obs_from w s (e :: es) =
  enc_obs (w_cfg w) e s (fst (step w s e)) (snd (step w s e)) :: obs_from w (fst (step w s e)) es.
Proof. unfold obs_from. cbn [run_states]. destruct (step w s e) as [s1 o]. reflexivity. Qed.

Definition no_corrupt (es : list op) : bool := forallb (fun e => negb (is_corrupt e)) es.

Section Assembly.
  Variable DS : world -> state -> Prop.
  Variable cov : world -> op -> bool.
  Hypothesis DS_init : forall w, wf_world w = true -> DS w (init_state (w_cfg w)).
  Hypothesis DS_step : forall w s e, wf_world w = true -> DS w s -> cov w e = true -> is_corrupt e = false ->
      step_wf w s e ->
      DS w (fst (step w s e)) /\ read_ok w s e (fst (step w s e)) (snd (step w s e)).

  Lemma run_gen w : wf_world w = true -> forall es m s pd sn,
      PI w m s pd sn -> m_viol m = [] -> (m_corrupted m = false -> DS w s) ->
      wf_ops w pd es = true -> wf_tids_from sn es = true -> forallb (cov w) es = true ->
      m_viol (mon01_run w m es (obs_from w s es)) = [] /\
      (m_corrupted m = false -> no_corrupt es = true ->
       DS w (fst (run w s es)) /\ s_negs (fst (run w s es)) = s_negs s).
  Proof.
    intros WW. induction es as [|e rest IH]; intros m s pd sn HP HV HD WF WT CV.
    { cbn [mon01_run run fst]. split; [exact HV|]. intros Hc _. split; [apply HD; exact Hc|reflexivity]. }
    rewrite obs_from_cons. cbn [mon01_run].
    cbn [forallb] in CV. apply andb_prop in CV. destruct CV as [CVe CV].
    destruct (step w s e) as [s1 o] eqn:ST. cbn [fst snd].
    assert (RO : m_corrupted m = false -> read_ok w s e s1 o /\ (is_corrupt e = false -> DS w s1)).
    { intros Hc. destruct (is_corrupt e) eqn:EC.
      - split; [|discriminate]. destruct e; try discriminate. apply step_corrupt in ST.
        destruct ST as (_ & N & _). split; [exact N|exact I].
      - pose proof (DS_step w s e WW (HD Hc) CVe EC (pinv_step_wf _ _ _ _ _ _ _ HP WF)) as X.
        rewrite ST in X. cbn [fst snd] in X. destruct X as [X1 X2]. split; [exact X2|intros _; exact X1]. }
    assert (Q : quiet m (enc_obs (w_cfg w) e s s1 o)).
    { unfold quiet. destruct (m_corrupted m) eqn:Hc; [apply andb_false_r|].
      destruct (RO eq_refl) as [[N _] _]. rewrite negs_test by exact N. reflexivity. }
    destruct (ev_all w m s pd sn e rest s1 o HP HV WF WT ST (fun Hc => proj1 (RO Hc)) Q) as [HP1 HV1].
    pose proof (step_corrupted w m e (enc_obs (w_cfg w) e s s1 o)) as BC.
    apply wf_ops_next in WF. apply wf_tids_from_cons in WT. destruct WT as [_ WT].
    assert (HD1 : m_corrupted (mon01_step w m e (enc_obs (w_cfg w) e s s1 o)) = false -> DS w s1).
    { rewrite BC. intros H. apply orb_false_elim in H. destruct H as [H1 H2]. apply (RO H1). exact H2. }
    destruct (IH _ _ _ _ HP1 HV1 HD1 WF WT CV) as [R1 R2]. split; [exact R1|].
    intros Hc NC. cbn [no_corrupt forallb] in NC. apply andb_prop in NC. destruct NC as [NCe NC].
    apply negb_true_iff in NCe.
    assert (Hc1 : m_corrupted (mon01_step w m e (enc_obs (w_cfg w) e s s1 o)) = false).
    { rewrite BC, Hc, NCe. reflexivity. }
    destruct (R2 Hc1 NC) as [D N]. cbn [run]. rewrite ST.
    destruct (run w s1 rest) as [s2 os]. cbn [fst] in *. split; [exact D|].
    rewrite N. destruct (RO Hc) as [[N1 _] _]. exact N1.
  Qed.

  Theorem P01_assembly : forall w es,
      wf_world w = true -> wf_ops w [] es = true -> wf_tids es = true -> forallb (cov w) es = true ->
      mon01_model w es = [].
  Proof.
    intros w es WW WF WT CV. unfold mon01_model, model_obs.
    apply (run_gen w WW es m01_init (init_state (w_cfg w)) [] []); auto.
    apply pinv_init.
  Qed.

  Theorem P01_run_DS : forall w es,
      wf_world w = true -> wf_ops w [] es = true -> wf_tids es = true -> forallb (cov w) es = true ->
      forallb (fun e => negb (is_corrupt e)) es = true ->
      DS w (fst (run w (init_state (w_cfg w)) es)) /\ s_negs (fst (run w (init_state (w_cfg w)) es)) = 0%nat.
  Proof.
    intros w es WW WF WT CV NC.
    destruct (run_gen w WW es m01_init (init_state (w_cfg w)) [] []) as [_ R]; auto.
    all: try apply pinv_init.
    all: try (apply R; [reflexivity|exact NC]).
  Qed.
End Assembly.

Print Assumptions P01_assembly.
Print Assumptions P01_run_DS.
