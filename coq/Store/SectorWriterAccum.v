(** Store/SectorWriterAccum.v — [shared_sector_accumulates]: a shared-sector image holds,
    for every writer touching that sector, the bytes it has copied into it so far. *)
From Coq Require Import List Arith ZArith Bool Lia.
From BBS Require Import Store.SectorWriter Store.SectorWriterProofs Store.SectorWriterSpec
  Store.SectorWriterCommute Store.SectorWriterArith Store.SectorWriterInv.
Import ListNotations.

Lemma order_cases c lo s j k u t :
  ainv c lo s -> nth_error (st_threads s) j = Some u -> nth_error (st_threads s) k = Some t -> j <> k ->
  t_end u <= t_start t \/ t_end t <= t_start u.
Proof.
  intros (_ & Hch & _) Hj Hk Hne. unfold t_end. destruct (lt_dec j k) as [l|l].
  - pose proof (chained_order _ _ _ _ _ _ Hch l Hj Hk). lia.
  - assert (k < j) as l' by lia. pose proof (chained_order _ _ _ _ _ _ Hch l' Hk Hj). lia.
Qed.

Section Accum.
Variable c : cfg.
Hypothesis HS : 1 <= c_sector c.
Local Notation SS := (c_sector c).

(** byte [pos] (block-relative, inside t's range) has been copied into the image of its sector:
    first-sector bytes as soon as they are written, last-sector bytes at flush *)
Definition copied (t : thread) (pos : nat) : Prop :=
  (t_first0 t <> None /\ pos / SS = t_fs c t /\ pos - t_start t < length (t_data t)) \/
  (~ (t_first0 t <> None /\ pos / SS = t_fs c t) /\ pos / SS = t_end t / SS /\ t_status t = Flushed).

Definition acc (images : list image) (threads : list thread) : Prop :=
  forall id j t pos, id < length images -> nth_error threads j = Some t ->
    t_start t <= pos < t_end t -> pos / SS = isec images id -> copied t pos ->
    nth (pos mod SS) (img_data images id) 0%Z = nth (pos - t_start t) (t_data t) 0%Z.

Lemma isec_inj b images id id' :
  cinv c b images -> id < length images -> id' < length images ->
  isec images id = isec images id' -> id = id'.
Proof.
  intros (_ & C2 & _) H1 H2 E. destruct (lt_eq_lt_dec id id') as [[H|H]|H]; auto.
  - specialize (C2 id id' H H2). lia.
  - specialize (C2 id' id H H1). lia.
Qed.

Lemma acc_upd images ts k t t' extra :
  acc images ts -> nth_error ts k = Some t -> t_status t = Active ->
  t_start t' = t_start t -> t_size t' = t_size t -> t_data t' = t_data t ++ extra ->
  (forall pos, t_start t <= pos < t_end t -> copied t' pos -> copied t pos) ->
  acc images (upd ts k t').
Proof.
  intros Hacc Hk Hact Es Ez Ed Hcop' id j u pos Hid Hj Hr Hsec Hcop.
  assert (Hklt : k < length ts) by (apply nth_error_Some; congruence).
  destruct (Nat.eq_dec j k) as [->|Hne].
  - rewrite nth_error_upd_eq in Hj by exact Hklt. inversion Hj; subst u; clear Hj.
    unfold t_end in Hr. rewrite Es, Ez in Hr. rewrite Es.
    pose proof (Hcop' pos Hr Hcop) as Hold.
    rewrite Ed, app_nth1; [exact (Hacc id k t pos Hid Hk Hr Hsec Hold)|].
    destruct Hold as [(_ & _ & H)|(_ & _ & H)]; [exact H|congruence].
  - rewrite nth_error_upd_ne in Hj by congruence. exact (Hacc id j u pos Hid Hj Hr Hsec Hcop).
Qed.

Lemma acc_image_write b images ts k t t' id0 off (bytes extra : list byte) :
  acc images ts -> cinv c b images -> nth_error ts k = Some t -> t_status t = Active ->
  (forall j u, j <> k -> nth_error ts j = Some u -> t_end u <= t_start t \/ t_end t <= t_start u) ->
  t_start t' = t_start t -> t_size t' = t_size t -> t_data t' = t_data t ++ extra ->
  id0 < length images ->
  (forall i, i < length bytes -> off + i < SS -> t_start t <= isec images id0 * SS + off + i < t_end t) ->
  (forall pos, t_start t <= pos < t_end t -> copied t' pos ->
     (copied t pos /\ ~ (pos / SS = isec images id0 /\ off <= pos mod SS < off + length bytes)) \/
     (pos / SS = isec images id0 /\ off <= pos mod SS < off + length bytes /\
      nth (pos mod SS - off) bytes 0%Z = nth (pos - t_start t) (t_data t') 0%Z)) ->
  acc (set_img images id0 (write_at (img_data images id0) off bytes)) (upd ts k t').
Proof.
  intros Hacc Hc Hk Hact Hdis Es Ez Ed Hid0 Hin Hcop' id j u pos Hid Hj Hr Hsec Hcop.
  rewrite set_img_length in Hid. rewrite isec_set_img in Hsec.
  assert (Hklt : k < length ts) by (apply nth_error_Some; congruence).
  destruct (sec_split SS HS pos) as [Ep Up]. pose proof Hc as (C1 & _).
  assert (Hread : ~ (pos / SS = isec images id0 /\ off <= pos mod SS < off + length bytes) ->
            nth (pos mod SS) (img_data (set_img images id0 (write_at (img_data images id0) off bytes)) id) 0%Z
            = nth (pos mod SS) (img_data images id) 0%Z).
  { intros Hnw. destruct (Nat.eq_dec id0 id) as [->|Hni]; [|rewrite img_data_set_img_ne by exact Hni; reflexivity].
    rewrite img_data_set_img_eq by exact Hid. apply nth_write_at_out. lia. }
  destruct (Nat.eq_dec j k) as [->|Hne].
  - rewrite nth_error_upd_eq in Hj by exact Hklt. inversion Hj; subst u; clear Hj.
    unfold t_end in Hr. rewrite Es, Ez in Hr. rewrite Es.
    destruct (Hcop' pos Hr Hcop) as [[Hold Hnw]|(Hs & Hw & Hb)].
    + rewrite (Hread Hnw), Ed, app_nth1; [exact (Hacc id k t pos Hid Hk Hr Hsec Hold)|].
      destruct Hold as [(_ & _ & H)|(_ & _ & H)]; [exact H|congruence].
    + assert (id = id0) by (eapply isec_inj; eauto; congruence). subst id.
      rewrite img_data_set_img_eq by exact Hid0.
      rewrite nth_write_at_in by (rewrite ?(C1 id0 Hid0); lia). exact Hb.
  - rewrite nth_error_upd_ne in Hj by congruence.
    rewrite Hread; [exact (Hacc id j u pos Hid Hj Hr Hsec Hcop)|].
    intros [Hs Hw]. specialize (Hin (pos mod SS - off) ltac:(lia) ltac:(lia)). rewrite <- Hs in Hin.
    destruct (Hdis j u Hne Hj); unfold t_end in *; lia.
Qed.

Lemma acc_alloc lo s size s' log :
  sinv c lo s -> acc (st_images s) (st_threads s) ->
  step c s (EAlloc size) = Some (s', log) -> acc (st_images s') (st_threads s').
Proof.
  intros (Ha & Hc & Ht) Hacc Hstep. cbn [step] in Hstep.
  destruct (has_space c (st_cur s) size); [|discriminate].
  destruct (alloc c (st_cur s) (st_images s) size) as [[[b' im'] w] start] eqn:Hal.
  inversion Hstep; subst; clear Hstep. cbn [st_images st_threads].
  pose proof (alloc_cases c _ _ _ _ _ _ _ Hal) as (Hst & Hw & Hwos & Hcases). cbv zeta in *.
  destruct Ha as (Hwf & Hch & Hce & _).
  intros id j t pos Hid Hj Hr Hsec Hcop.
  destruct (lt_dec j (length (st_threads s))) as [Hjl|Hjl].
  2:{ (* the new thread has copied nothing *)
    assert (j = length (st_threads s)).
    { assert (j < length (st_threads s ++ [
        {| t_w := w; t_start := start; t_size := size; t_data := []; t_first0 := w_first w; t_status := Active |}]))
        by (apply nth_error_Some; congruence). rewrite app_length in H. cbn in H. lia. }
    subst j. rewrite nth_error_app2, Nat.sub_diag in Hj by lia. cbn in Hj. inversion Hj; subst t; clear Hj.
    destruct Hcop as [(_ & _ & H)|(_ & _ & H)]; cbn in H; [lia|discriminate]. }
  rewrite nth_error_app1 in Hj by exact Hjl.
  pose proof (chained_bounds _ _ _ _ Hch Hj) as [_ Hb]. rewrite Hce in Hb. unfold cpos in Hb.
  assert (Hold : id < length (st_images s) -> im' = st_images s \/ (exists x, im' = st_images s ++ [x]) ->
                 nth (pos mod SS) (img_data im' id) 0%Z = nth (pos - t_start t) (t_data t) 0%Z).
  { intros Hlt [E|[x E]]; subst im'.
    - eapply Hacc; eauto.
    - rewrite img_data_app_old by exact Hlt. rewrite isec_app_old in Hsec by exact Hlt. eapply Hacc; eauto. }
  destruct Hcases as [(_ & _ & E)|[(_ & _ & _ & E)|(L0 & Hfresh & Sh' & E)]].
  - subst im'. apply Hold; auto.
  - subst im'. apply Hold; auto.
  - destruct (lt_dec id (length (st_images s))) as [Hlt|Hge]; [apply Hold; eauto|].
    exfalso. subst im'. rewrite app_length in Hid. cbn in Hid.
    assert (id = length (st_images s)) by lia. subst id. rewrite isec_app_new in Hsec. cbn in Hsec.
    (* the fresh image is of a sector at or above the cursor, beyond every range handed out *)
    unfold t_end in Hr.
    destruct (shared_off_bounds c HS (st_cur s) Hwf) as (Ho1 & Ho2 & _).
    pose proof (sec_lt SS HS pos (b_wos (st_cur s) + 1) ltac:(lia)).
    destruct Hfresh as [Hn|Hn]; [specialize (Ho2 Hn)|lia].
    pose proof (sec_lt SS HS pos (b_wos (st_cur s)) ltac:(lia)). lia.
Qed.
Lemma acc_write lo s k t chunk s' log :
  sinv c lo s -> acc (st_images s) (st_threads s) ->
  nth_error (st_threads s) k = Some t ->
  step c s (EWrite k chunk) = Some (s', log) -> acc (st_images s') (st_threads s').
Proof.
  intros Hinv Hacc Hk Hstep. pose proof Hinv as (Ha & Hc & Ht).
  pose proof (Forall_nth_error _ _ _ _ Ht Hk) as Htk.
  pose proof (fun j u Hne Hj => order_cases _ _ _ j k u t Ha Hj Hk Hne) as Hdis.
  destruct (proj1 (step_write_iff _ _ _ _ _ _ _ Hk) Hstep) as (Hst & Hn & _ & ->).
  cbn [set_thread st_images st_threads]. rewrite write_images.
  destruct (t_start_eq c HS t) as [Est Ua].
  destruct (w_first (t_w t)) as [fid|] eqn:Hf.
  - (* bytes [chunk] go into the image of the first sector, at the writer's place in it *)
    destruct (wph_some _ _ _ _ Htk Hf) as (F0 & A0 & Hid & Hsec & Hx & Hfo & Hoff & Hp).
    apply (acc_image_write (st_cur s) _ _ k t _ fid _ chunk chunk Hacc Hc Hk Hst Hdis);
      try reflexivity; [exact Hid| |].
    + intros i Hi _. rewrite Hsec, Hfo. unfold t_end. lia.
    + intros pos Hr Hcop. unfold copied, t_fs in Hcop. cbn [t_first0 t_start t_data t_status] in Hcop.
      destruct Hcop as [(F0ne & Hps & Hlt)|(_ & _ & Hfl)]; [|discriminate].
      rewrite app_length in Hlt. destruct (sec_split SS HS pos) as [Ep Up]. rewrite Hps in Ep.
      fold (t_fs c t) in Ep, Hps. rewrite Hsec, Hfo.
      destruct (lt_dec (pos - t_start t) (length (t_data t))) as [Hlo|Hhi].
      * left. split; [left; repeat split; assumption|]. lia.
      * right. split; [exact Hps|]. split; [lia|]. cbn [t_data]. rewrite app_nth2 by lia. f_equal. lia.
  - (* the first sector, if shared, is complete: nothing more is copied into an image *)
    apply (acc_upd _ _ k t _ chunk Hacc Hk Hst); try reflexivity.
    intros pos Hr Hcop. unfold copied, t_fs in Hcop. cbn [t_first0 t_start t_data t_status] in Hcop.
    destruct Hcop as [(F0ne & Hps & Hlt)|(_ & _ & Hfl)]; [|discriminate].
    left. split; [exact F0ne|]. split; [exact Hps|].
    pose proof (first_done c _ _ Htk Hf F0ne). destruct (sec_bounds SS HS pos) as [_ Up].
    rewrite Hps in Up. fold (t_fs c t) in Up. lia.
Qed.

Lemma acc_flush lo s k t s' log :
  sinv c lo s -> acc (st_images s) (st_threads s) ->
  nth_error (st_threads s) k = Some t ->
  step c s (EFlush k) = Some (s', log) -> acc (st_images s') (st_threads s').
Proof.
  intros Hinv Hacc Hk Hstep. pose proof Hinv as (Ha & Hc & Ht).
  pose proof (Forall_nth_error _ _ _ _ Ht Hk) as Htk. pose proof Htk as (_ & _ & T3 & _).
  pose proof (fun j u Hne Hj => order_cases _ _ _ j k u t Ha Hj Hk Hne) as Hdis.
  destruct (proj1 (step_flush_iff _ _ _ _ _ _ Hk) Hstep) as (Hst & Hn & _ & ->).
  cbn [set_thread st_images st_threads]. rewrite flush_images.
  destruct (sec_split SS HS (t_end t)) as [Ee Ue].
  destruct (w_last (t_w t)) as [idl|] eqn:Hl.
  - (* [w_partial], the bytes of the last sector, go to the start of that sector's image *)
    destruct T3 as (E0 & Hidl & Hsecl).
    apply (acc_image_write (st_cur s) _ _ k t _ idl 0 (w_partial (t_w t)) [] Hacc Hc Hk Hst Hdis);
      try reflexivity; [symmetry; apply app_nil_r|exact Hidl| |].
    + intros i Hi _. rewrite Hsecl. destruct (w_first (t_w t)) as [fid|] eqn:Hf.
      * destruct (wph_some _ _ _ _ Htk Hf) as (_ & _ & _ & _ & _ & _ & _ & Hp).
        rewrite Hp in Hi. cbn in Hi. lia.
      * destruct (at_end_none c HS _ _ Htk Hf Hn) as (pre & _ & _ & M & E). lia.
    + intros pos Hr Hcop. unfold copied, t_fs, t_end in Hcop.
      cbn [t_first0 t_start t_data t_status t_size] in Hcop. fold (t_end t) (t_fs c t) in Hcop.
      rewrite Hsecl. destruct Hcop as [(F0ne & Hps & Hlt)|(Hnot & Hpe & _)].
      * left. split; [left; repeat split; assumption|]. intros [Hs Hw].
        destruct (w_first (t_w t)) as [fid|] eqn:Hf.
        -- destruct (wph_some _ _ _ _ Htk Hf) as (_ & _ & _ & _ & _ & _ & _ & Hp).
           rewrite Hp in Hw. cbn in Hw. lia.
        -- pose proof (first_done c _ _ Htk Hf F0ne). destruct (t_start_eq c HS t) as [Est _].
           pose proof (sec_ge SS HS (t_fs c t + 1) (t_end t) ltac:(unfold t_end; lia)). lia.
      * right. split; [exact Hpe|]. destruct (w_first (t_w t)) as [fid|] eqn:Hf.
        -- exfalso. apply Hnot. destruct (wph_some _ _ _ _ Htk Hf) as (F0 & _).
           destruct (at_end_some c HS _ _ _ Htk Hf Hn) as [D _]. split; congruence.
        -- destruct (at_end_none c HS _ _ Htk Hf Hn) as (pre & Hpre & _ & M & E).
           destruct (sec_split SS HS pos) as [Ep Up]. rewrite Hpe in Ep.
           split; [lia|]. cbn [t_data]. rewrite Nat.sub_0_r, Hpre, app_nth2 by lia. f_equal. lia.
  - (* the range ends on a sector boundary: it has no last-sector bytes *)
    apply (acc_upd _ _ k t _ [] Hacc Hk Hst); try reflexivity; [symmetry; apply app_nil_r|].
    intros pos Hr Hcop. unfold copied, t_fs, t_end in Hcop.
    cbn [t_first0 t_start t_data t_status t_size] in Hcop. fold (t_end t) (t_fs c t) in Hcop.
    destruct Hcop as [H|(_ & Hpe & _)]; [left; exact H|exfalso].
    pose proof (sec_lt SS HS pos (t_end t / SS) ltac:(lia)). lia.
Qed.

Lemma acc_abandon s k t :
  acc (st_images s) (st_threads s) -> nth_error (st_threads s) k = Some t -> t_status t = Active ->
  acc (st_images s)
      (upd (st_threads s) k {| t_w := t_w t; t_start := t_start t; t_size := t_size t; t_data := t_data t;
                               t_first0 := t_first0 t; t_status := Abandoned |}).
Proof.
  intros Hacc Hk Hst. apply (acc_upd _ _ k t _ [] Hacc Hk Hst); try reflexivity; [symmetry; apply app_nil_r|].
  intros pos _ [H|(_ & _ & H)]; [left; exact H|discriminate].
Qed.

Definition ainv2 (lo : nat) (s : state) : Prop := sinv c lo s /\ acc (st_images s) (st_threads s).

Lemma ainv2_step lo s e s' log : ainv2 lo s -> step c s e = Some (s', log) -> ainv2 lo s'.
Proof.
  intros [Hs Hacc] Hstep. split; [eapply sinv_step; eauto|].
  destruct e as [size|k ch|k|k]; [eapply acc_alloc; eauto| | |];
    (destruct (nth_error (st_threads s) k) as [t|] eqn:Hk;
     [|cbn in Hstep; rewrite Hk in Hstep; discriminate]).
  - eapply acc_write; eauto.
  - eapply acc_flush; eauto.
  - destruct (proj1 (step_abandon_iff _ _ _ _ _ _ Hk) Hstep) as (Hst & _ & ->). cbn [set_thread st_images st_threads]. apply acc_abandon; assumption.
Qed.

Lemma ainv2_init dev b : b_shared b = None -> ainv2 (cpos c b) (init_state dev b).
Proof.
  intros Hb. split; [apply sinv_init; assumption|]. intros id j t pos _ Hj. destruct j; discriminate.
Qed.
End Accum.

Lemma run_ainv2 c dev b0 tr s : 1 <= c_sector c -> b_shared b0 = None ->
  run c (init_state dev b0) tr = Some s -> ainv2 c (cpos c b0) s.
Proof. intros HS Hb. exact (run_invariant c _ (ainv2_step c HS _) tr _ _ (ainv2_init c HS dev b0 Hb)). Qed.

Lemma flush_writes_image c images w id :
  w_last w = Some id -> id < length images ->
  snd (flush c images w) =
  [(w_off w * length (img_data (fst (flush c images w)) id), img_data (fst (flush c images w)) id)].
Proof.
  intros Hl Hid. rewrite (flush_some c images w id Hl). cbn [fst snd].
  rewrite img_data_set_img_eq by exact Hid. reflexivity.
Qed.

Lemma write_first_writes_image c images w p id :
  w_first w = Some id -> id < length images -> length (img_data images id) = c_sector c ->
  w_firstoff w < c_sector c -> c_sector c <= w_firstoff w + length p ->
  exists rest, snd (write c images w p) =
    (w_off w * c_sector c, img_data (fst (fst (write c images w p))) id) :: rest.
Proof.
  intros Hf Hid Hl Hx Hge. pose proof (write_first_long c images w p id Hf Hl Hx Hge) as H. cbv zeta in H.
  rewrite H. cbn [fst snd]. rewrite img_data_set_img_eq by exact Hid. eexists. reflexivity.
Qed.

Definition flinv (s : state) : Prop :=
  Forall (fun t => t_status t = Flushed -> length (t_data t) = t_size t) (st_threads s).

Lemma flinv_step c s e s' log : flinv s -> step c s e = Some (s', log) -> flinv s'.
Proof.
  unfold flinv. intros H Hs.
  destruct e as [size|k ch|k|k];
    [destruct (step_alloc_shape _ _ _ _ _ Hs) as (t & _ & _ & -> & _ & Hact);
     apply Forall_app; split; [exact H|constructor; [congruence|constructor]]| | |];
    (destruct (nth_error (st_threads s) k) as [t|] eqn:Hk; [|cbn in Hs; rewrite Hk in Hs; discriminate]).
  - destruct (proj1 (step_write_iff _ _ _ _ _ _ _ Hk) Hs) as (_ & _ & _ & ->). apply Forall_upd; [exact H|discriminate].
  - destruct (proj1 (step_flush_iff _ _ _ _ _ _ Hk) Hs) as (_ & E & _ & ->). apply Forall_upd; [exact H|intros _; exact E].
  - destruct (proj1 (step_abandon_iff _ _ _ _ _ _ Hk) Hs) as (_ & _ & ->). apply Forall_upd; [exact H|discriminate].
Qed.

Lemma run_flinv c dev b0 tr s : run c (init_state dev b0) tr = Some s -> flinv s.
Proof. apply (run_invariant c _ (flinv_step c)). constructor. Qed.
