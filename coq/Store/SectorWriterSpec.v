(** Store/SectorWriterSpec.v — functional specification of [write_rest]/[write]/[flush]:
    the device writes of the private part tile a contiguous byte range. *)
From Coq Require Import List Arith ZArith Bool Lia.
From BBS Require Import Store.SectorWriter Store.SectorWriterArith Store.SectorWriterProofs.
Import ListNotations.

Fixpoint contig (lo : nat) (log : list dwrite) : Prop :=
  match log with [] => True | w :: l => fst w = lo /\ contig (lo + length (snd w)) l end.
Definition payload (log : list dwrite) : list byte := concat (map snd log).

Lemma write_at_app d o s1 s2 :
  write_at (write_at d o s1) (o + length s1) s2 = write_at d o (s1 ++ s2).
Proof.
  apply (nth_ext _ _ 0%Z 0%Z); [rewrite !write_at_length; reflexivity|].
  intros i Hi. rewrite !write_at_length in Hi.
  destruct (lt_dec i o) as [H1|H1].
  { rewrite !nth_write_at_out by (rewrite ?app_length; lia). reflexivity. }
  destruct (lt_dec i (o + length s1)) as [H2|H2].
  { rewrite nth_write_at_out by lia. rewrite !nth_write_at_in by (rewrite ?app_length; lia).
    rewrite app_nth1 by lia. reflexivity. }
  destruct (lt_dec i (o + length s1 + length s2)) as [H3|H3].
  { rewrite !nth_write_at_in by (rewrite ?app_length, ?write_at_length; lia).
    rewrite app_nth2 by lia. f_equal. lia. }
  rewrite !nth_write_at_out by (rewrite ?app_length; lia). reflexivity.
Qed.

Lemma write_at_nil d o : write_at d o [] = d.
Proof. revert o; induction d; intros [|o]; cbn; auto. f_equal. apply IHd. Qed.

Lemma contig_apply dev lo log : contig lo log -> apply_writes dev log = write_at dev lo (payload log).
Proof.
  revert dev lo; induction log as [|w log IH]; intros dev lo H; cbn.
  - symmetry. apply write_at_nil.
  - destruct H as [H1 H2]. unfold payload; cbn. fold (payload log).
    change (fold_left _ log ?d) with (apply_writes d log).
    rewrite (IH _ _ H2), H1. apply write_at_app.
Qed.

Lemma contig_range lo log w : contig lo log -> In w log ->
  lo <= fst w /\ fst w + length (snd w) <= lo + length (payload log).
Proof.
  revert lo; induction log as [|u log IH]; intros lo H Hin; [destruct Hin|].
  destruct H as [H1 H2]. unfold payload; cbn; rewrite app_length. fold (payload log).
  destruct Hin as [->|Hin]; [lia|]. specialize (IH _ H2 Hin). lia.
Qed.

Lemma contig_app lo l1 l2 : contig lo l1 -> contig (lo + length (payload l1)) l2 -> contig lo (l1 ++ l2).
Proof.
  revert lo; induction l1 as [|u l1 IH]; intros lo H1 H2; cbn in *.
  - unfold payload in H2; cbn in H2. rewrite Nat.add_0_r in H2. exact H2.
  - destruct H1 as [E H1]. split; [exact E|]. apply IH; [exact H1|].
    unfold payload in *; cbn in H2; rewrite app_length in H2. rewrite Nat.add_assoc in H2. exact H2.
Qed.

Lemma payload_app l1 l2 : payload (l1 ++ l2) = payload l1 ++ payload l2.
Proof. unfold payload. rewrite map_app, concat_app. reflexivity. Qed.

Lemma payload_one o (x : list byte) : payload [(o, x)] = x.
Proof. apply app_nil_r. Qed.

Lemma write_rest_spec0 c w p : 1 <= c_sector c -> w_partial w = [] ->
  let w' := fst (write_rest c w p) in let log := snd (write_rest c w p) in
  payload log ++ w_partial w' = p /\ length (w_partial w') < c_sector c /\
  w_off w' * c_sector c = w_off w * c_sector c + length (payload log) /\
  contig (w_off w * c_sector c) log /\
  w_first w' = w_first w /\ w_firstoff w' = w_firstoff w /\ w_last w' = w_last w.
Proof.
  intros HS Hp. unfold write_rest. rewrite Hp. change (0 <? length (@nil byte)) with false. cbv beta iota zeta.
  set (SS := c_sector c) in *. set (m := length p).
  destruct (sec_bounds SS HS m) as [Hq Hu].
  destruct (Nat.ltb_spec 0 (m / SS * SS)) as [Ha|Ha].
  - cbn [fst snd app]. rewrite skipn_length. fold m.
    destruct (Nat.ltb_spec 0 (m - m / SS * SS)) as [Ht|Ht];
      cbn [fst snd w_off w_partial w_first w_firstoff w_last]; rewrite Hp, payload_one, firstn_length; fold m.
    + cbn [app]. rewrite skipn_length. fold m. repeat split; auto; [apply firstn_skipn|lia..].
    + rewrite app_nil_r. repeat split; auto; [|lia..]. apply firstn_all2. fold m. lia.
  - assert (m < SS) as Hm by lia. cbn [fst snd app]. fold m.
    destruct (Nat.ltb_spec 0 m) as [Ht|Ht]; cbn [fst snd w_off w_partial w_first w_firstoff w_last];
      rewrite Hp; cbn [app payload map concat length]; repeat split; auto; try lia.
    symmetry; apply length_zero_iff_nil; fold m; lia.
Qed.

Lemma write_rest_complete c w p :
  0 < length (w_partial w) ->
  c_sector c <= length (w_partial w ++ firstn (Nat.min (length p) (c_sector c - length (w_partial w))) p) ->
  let copied := Nat.min (length p) (c_sector c - length (w_partial w)) in
  let part := w_partial w ++ firstn copied p in
  let w1 := {| w_off := w_off w + 1; w_first := w_first w; w_firstoff := w_firstoff w;
               w_partial := []; w_last := w_last w |} in
  write_rest c w p = (fst (write_rest c w1 (skipn copied p)),
                      (w_off w * c_sector c, part) :: snd (write_rest c w1 (skipn copied p))).
Proof.
  intros Hr Hc. cbv zeta. unfold write_rest.
  replace (0 <? length (w_partial w)) with true by (symmetry; apply Nat.ltb_lt; exact Hr).
  match goal with |- context [length ?l <? c_sector c] =>
    replace (length l <? c_sector c) with false by (symmetry; apply Nat.ltb_ge; exact Hc) end.
  cbn [w_partial length]. change (0 <? 0) with false. cbv beta iota zeta.
  repeat (dif; cbn [fst snd w_off w_first w_firstoff w_partial w_last app]); reflexivity.
Qed.

Lemma write_rest_spec c w p : 1 <= c_sector c -> length (w_partial w) < c_sector c ->
  let w' := fst (write_rest c w p) in let log := snd (write_rest c w p) in
  payload log ++ w_partial w' = w_partial w ++ p /\ length (w_partial w') < c_sector c /\
  w_off w' * c_sector c = w_off w * c_sector c + length (payload log) /\
  contig (w_off w * c_sector c) log /\
  w_first w' = w_first w /\ w_firstoff w' = w_firstoff w /\ w_last w' = w_last w.
Proof.
  intros HS Hr. cbv zeta. set (SS := c_sector c) in *.
  destruct (Nat.eq_dec (length (w_partial w)) 0) as [Hz|Hz].
  { apply length_zero_iff_nil in Hz. rewrite Hz. exact (write_rest_spec0 c w p HS Hz). }
  set (r := length (w_partial w)) in *. set (m := length p).
  set (copied := Nat.min m (SS - r)).
  destruct (Nat.lt_ge_cases (r + copied) SS) as [Hlt|Hge].
  - (* the partial sector stays incomplete *)
    assert (copied = m) by (unfold copied in *; lia).
    unfold write_rest. fold SS r m copied.
    replace (0 <? r) with true by (symmetry; apply Nat.ltb_lt; lia).
    replace (length (w_partial w ++ firstn copied p) <? SS) with true
      by (symmetry; apply Nat.ltb_lt; rewrite app_length, firstn_length; fold r m; lia).
    cbn [fst snd w_off w_first w_firstoff w_partial w_last].
    rewrite H. unfold m. rewrite firstn_all, app_length. fold r m. repeat split; auto; lia.
  - pose proof (write_rest_complete c w p ltac:(fold r; lia)) as Hid. cbv zeta in Hid.
    fold SS r m copied in Hid. rewrite Hid by (rewrite app_length, firstn_length; fold r m; lia).
    clear Hid. cbn [fst snd].
    match goal with |- context [write_rest c ?w1 ?p1] =>
      destruct (write_rest_spec0 c w1 p1 HS eq_refl) as (H1 & H2 & H3 & H4 & H5) end.
    cbn [w_off w_first w_firstoff w_last] in H3, H4, H5. fold SS in H2, H3, H4.
    assert (Hpart : length (w_partial w ++ firstn copied p) = SS)
      by (rewrite app_length, firstn_length; fold r m; unfold copied in *; lia).
    unfold payload in *. cbn [map concat snd contig fst]. rewrite app_length, Hpart.
    split; [rewrite <- !app_assoc, H1, firstn_skipn; reflexivity|].
    split; [exact H2|]. split; [lia|]. split; [|exact H5].
    split; [reflexivity|]. replace (w_off w * SS + SS) with ((w_off w + 1) * SS) by lia. exact H4.
Qed.

Lemma write_none c images w p : w_first w = None ->
  write c images w p = (images, fst (write_rest c w p), snd (write_rest c w p)).
Proof. intros H. unfold write. rewrite H. destruct (write_rest c w p); reflexivity. Qed.

Lemma write_first_short c images w p id :
  w_first w = Some id -> length (img_data images id) = c_sector c ->
  w_firstoff w + length p < c_sector c ->
  write c images w p =
  (set_img images id (write_at (img_data images id) (w_firstoff w) p),
   {| w_off := w_off w; w_first := Some id; w_firstoff := w_firstoff w + length p;
      w_partial := w_partial w; w_last := w_last w |}, []).
Proof.
  intros H Hl Hx. unfold write. rewrite H, Hl.
  replace (Nat.min (c_sector c - w_firstoff w) (length p)) with (length p) by lia.
  replace (w_firstoff w + length p <? c_sector c) with true by (symmetry; apply Nat.ltb_lt; lia).
  reflexivity.
Qed.

Lemma write_first_long c images w p id :
  w_first w = Some id -> length (img_data images id) = c_sector c ->
  w_firstoff w < c_sector c -> c_sector c <= w_firstoff w + length p ->
  let w1 := {| w_off := w_off w + 1; w_first := None; w_firstoff := c_sector c;
               w_partial := w_partial w; w_last := w_last w |} in
  let p1 := skipn (c_sector c - w_firstoff w) p in
  let img' := write_at (img_data images id) (w_firstoff w) p in
  write c images w p =
  (set_img images id img', fst (write_rest c w1 p1), (w_off w * c_sector c, img') :: snd (write_rest c w1 p1)).
Proof.
  intros H Hl Hx Hge. cbv zeta. unfold write. rewrite H, Hl.
  replace (Nat.min (c_sector c - w_firstoff w) (length p)) with (c_sector c - w_firstoff w) by lia.
  replace (w_firstoff w + (c_sector c - w_firstoff w)) with (c_sector c) by lia.
  rewrite Nat.ltb_irrefl. destruct (write_rest c _ _); reflexivity.
Qed.

Lemma flush_some c images w id : w_last w = Some id ->
  flush c images w =
  (set_img images id (write_at (img_data images id) 0 (w_partial w)),
   [(w_off w * length (write_at (img_data images id) 0 (w_partial w)),
     write_at (img_data images id) 0 (w_partial w))]).
Proof. intros H. unfold flush. rewrite H. reflexivity. Qed.

Lemma flush_none c images w : w_last w = None -> flush c images w = (images, []).
Proof. intros H. unfold flush. rewrite H. reflexivity. Qed.
