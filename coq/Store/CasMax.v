(** increaseTotalBlocksToBeReleased (old_current_new_location_blob_map.go
    224-234) at the granularity of its atomic operations, run by any number of
    goroutines at once (integrity callbacks and the rotating Put):

      for { old := v.Load(); if new <= old { return 0 }
            if v.CompareAndSwap(old, new) { return new - old } }

    Store/Quarantine.v treats one call as ONE atomic step "v := max v new".
    This file justifies that: under every interleaving of Loads and
    CompareAndSwaps the variable only grows, never exceeds the largest value
    asked for, is at least [new] once the call asking for [new] has returned (and
    for ever after), and the returned amounts add up to the total growth. *)
From Coq Require Import List ZArith Bool Lia.
Import ListNotations.
Open Scope Z_scope.

Inductive cpc := CLoad | CCas (ov : Z) | CRet (r : Z).
Record cth := { c_new : Z; c_pc : cpc }.
Record cst := { c_v : Z; c_ths : list cth }.

Inductive cev := CSpawn (new : Z) | CStep (i : nat).

Fixpoint upd (l : list cth) (i : nat) (t : cth) : list cth :=
  match l, i with
  | [], _ => []
  | _ :: r, O => t :: r
  | x :: r, S j => x :: upd r j t
  end.

Definition cstep (s : cst) (e : cev) : cst :=
  match e with
  | CSpawn n => {| c_v := c_v s; c_ths := c_ths s ++ [{| c_new := n; c_pc := CLoad |}] |}
  | CStep i =>
      match nth_error (c_ths s) i with
      | None => s
      | Some t =>
          match c_pc t with
          | CLoad =>
              if c_new t <=? c_v s
              then {| c_v := c_v s; c_ths := upd (c_ths s) i {| c_new := c_new t; c_pc := CRet 0 |} |}
              else {| c_v := c_v s; c_ths := upd (c_ths s) i {| c_new := c_new t; c_pc := CCas (c_v s) |} |}
          | CCas ov =>
              if c_v s =? ov
              then {| c_v := c_new t;
                      c_ths := upd (c_ths s) i {| c_new := c_new t; c_pc := CRet (c_new t - ov) |} |}
              else {| c_v := c_v s; c_ths := upd (c_ths s) i {| c_new := c_new t; c_pc := CLoad |} |}
          | CRet _ => s
          end
      end
  end.

Definition crun (v0 : Z) (es : list cev) : cst := fold_left cstep es {| c_v := v0; c_ths := [] |}.

Definition ret_of (t : cth) : Z := match c_pc t with CRet r => r | _ => 0 end.
Fixpoint sum_ret (l : list cth) : Z := match l with [] => 0 | t :: r => ret_of t + sum_ret r end.
Fixpoint max_new (v0 : Z) (l : list cth) : Z :=
  match l with [] => v0 | t :: r => Z.max (c_new t) (max_new v0 r) end.

Definition th_ok (v : Z) (t : cth) : Prop :=
  match c_pc t with
  | CLoad => True
  | CCas ov => ov <= v /\ ov < c_new t
  | CRet r => c_new t <= v /\ 0 <= r
  end.

Record CInv (v0 : Z) (s : cst) : Prop := {
  ci_lo : v0 <= c_v s;
  ci_hi : c_v s <= max_new v0 (c_ths s);
  ci_sum : c_v s = v0 + sum_ret (c_ths s);
  ci_th : forall t, In t (c_ths s) -> th_ok (c_v s) t
}.

Lemma th_ok_mono v v' t : v <= v' -> th_ok v t -> th_ok v' t.
Proof. unfold th_ok. destruct (c_pc t); intros; auto; lia. Qed.

Lemma in_upd l : forall i t x, In x (upd l i t) -> x = t \/ In x l.
Proof.
  induction l as [|y r IH]; intros [|j] t x H; cbn [upd] in H; auto.
  - destruct H as [<-|H]; [left; reflexivity|right; right; exact H].
  - destruct H as [<-|H]; [right; left; reflexivity|].
    destruct (IH _ _ _ H) as [->|H']; [left; reflexivity|right; right; exact H'].
Qed.

Lemma sum_upd l : forall i t t0, nth_error l i = Some t0 ->
  sum_ret (upd l i t) = sum_ret l - ret_of t0 + ret_of t.
Proof.
  induction l as [|y r IH]; intros [|j] t t0 H; cbn [nth_error] in H; try discriminate; cbn [upd sum_ret].
  - injection H as ->. lia.
  - rewrite (IH _ _ _ H). lia.
Qed.

Lemma max_upd v0 l : forall i t t0, nth_error l i = Some t0 -> c_new t = c_new t0 ->
  max_new v0 (upd l i t) = max_new v0 l.
Proof.
  induction l as [|y r IH]; intros [|j] t t0 H E; cbn [nth_error] in H; try discriminate; cbn [upd max_new].
  - injection H as ->. rewrite E. reflexivity.
  - rewrite (IH _ _ _ H E). reflexivity.
Qed.

Lemma max_new_in v0 l t : In t l -> c_new t <= max_new v0 l.
Proof. induction l as [|y r IH]; intros []; cbn [max_new]; [subst; lia|specialize (IH H); lia]. Qed.

Lemma cinv_upd v0 s i t pc' v' : CInv v0 s -> nth_error (c_ths s) i = Some t ->
  c_v s <= v' <= max_new v0 (c_ths s) ->
  v' - c_v s = ret_of {| c_new := c_new t; c_pc := pc' |} - ret_of t ->
  th_ok v' {| c_new := c_new t; c_pc := pc' |} ->
  CInv v0 {| c_v := v'; c_ths := upd (c_ths s) i {| c_new := c_new t; c_pc := pc' |} |}.
Proof.
  intros [Hlo Hhi Hsum Hth] En Hv Hret Hok. constructor; cbn [c_v c_ths].
  - lia.
  - erewrite max_upd by eauto. lia.
  - erewrite sum_upd by eauto. lia.
  - intros x Hx. destruct (in_upd _ _ _ _ Hx) as [->|Hx']; [exact Hok|].
    apply (th_ok_mono (c_v s)); [lia|auto].
Qed.

Lemma max_new_snoc v0 l t : max_new v0 l <= max_new v0 (l ++ [t]).
Proof. induction l; cbn [app max_new]; lia. Qed.
Lemma sum_ret_snoc l t : sum_ret (l ++ [t]) = sum_ret l + ret_of t.
Proof. induction l; cbn [app sum_ret]; lia. Qed.

Lemma cinv_step v0 s e : CInv v0 s -> CInv v0 (cstep s e) /\ c_v s <= c_v (cstep s e).
Proof.
  intros H. destruct e as [n|i]; cbn [cstep].
  - split; [|cbn; lia]. destruct H as [Hlo Hhi Hsum Hth]. constructor; cbn [c_v c_ths]; auto.
    + pose proof (max_new_snoc v0 (c_ths s) {| c_new := n; c_pc := CLoad |}). lia.
    + rewrite sum_ret_snoc. cbn. lia.
    + intros t Hi. apply in_app_or in Hi. destruct Hi as [Hi|[<-|[]]]; [auto|exact I].
  - destruct (nth_error (c_ths s) i) as [t|] eqn:En; [|split; [exact H|lia]].
    pose proof (nth_error_In _ _ En) as Hin.
    pose proof (ci_th _ _ H t Hin) as Hok. pose proof (ci_hi _ _ H) as Hhi. pose proof (max_new_in v0 _ _ Hin) as Hmax.
    unfold th_ok in Hok. destruct (c_pc t) as [|ov|r] eqn:Epc; [| |split; [exact H|lia]].
    (* in all four outcomes the conditions of [cinv_upd] are linear arithmetic *)
    + destruct (c_new t <=? c_v s) eqn:El; [apply Z.leb_le in El|apply Z.leb_gt in El];
        (split; [|cbn; lia]); apply (cinv_upd v0 s i t); try assumption;
        unfold th_ok, ret_of; rewrite ?Epc; cbn [c_pc c_new]; lia.
    + destruct (c_v s =? ov) eqn:Ev; [apply Z.eqb_eq in Ev|];
        (split; [|cbn [c_v]; lia]); apply (cinv_upd v0 s i t); try assumption;
        unfold th_ok, ret_of; rewrite ?Epc; cbn [c_pc c_new]; lia.
Qed.

Lemma cinv_init v0 : CInv v0 {| c_v := v0; c_ths := [] |}.
Proof. constructor; cbn; try lia. all: try (intros t []). Qed.

Lemma cinv_run v0 es : forall s, CInv v0 s ->
  CInv v0 (fold_left cstep es s) /\ c_v s <= c_v (fold_left cstep es s).
Proof.
  induction es as [|e r IH]; intros s H; cbn [fold_left]; [split; [exact H|lia]|].
  destruct (cinv_step v0 s e H) as [H1 H2]. destruct (IH _ H1) as [H3 H4]. split; [exact H3|lia].
Qed.

(** Under every interleaving: the variable never decreases, stays within what
    was asked for, accounts exactly for the returned amounts, and a call that
    has returned has its value in place — now and after any further steps. *)
Theorem cas_loop_is_atomic_maximum_all : forall v0 es,
  let s := crun v0 es in
  v0 <= c_v s <= max_new v0 (c_ths s)
  /\ c_v s = v0 + sum_ret (c_ths s)
  /\ (forall i t r, nth_error (c_ths s) i = Some t -> c_pc t = CRet r ->
        0 <= r /\ forall es', c_new t <= c_v (fold_left cstep es' s))
  /\ (forall es', c_v s <= c_v (fold_left cstep es' s)).
Proof.
  intros v0 es s. destruct (cinv_run v0 es _ (cinv_init v0)) as [H _]. fold (crun v0 es) in H. fold s in H.
  split; [split; apply H|]. split; [apply H|]. split.
  - intros i t r En Ep. pose proof (ci_th _ _ H t (nth_error_In _ _ En)) as Hok.
    unfold th_ok in Hok. rewrite Ep in Hok. split; [apply Hok|].
    intros es'. destruct (cinv_run v0 es' s H) as [_ Hm]. lia.
  - intros es'. apply (cinv_run v0 es' s H).
Qed.
