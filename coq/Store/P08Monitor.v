(** C08 — the monitor [mon08] (Run/R08.v) is silent on every run of the
    store model: all worlds, all schedules. *)
From Coq Require Import List NArith ZArith Bool Arith Lia ZifyN ZifyNat ZifyBool.
From BBS Require Import Common.Sx Store.Model Store.Basics Store.P08Frame Store.P08Step Store.P08Quarantine
  Run.RStore Run.R01 Run.R08.
From BBS Require Common.SxFactsMA.
Import ListNotations.
Open Scope Z_scope.

Definition model_obs (w : world) (es : list op) (sts : list (state * state * out)) : list sx :=
  map (fun '(e, (s0, s1, o)) => enc_obs (w_cfg w) e s0 s1 o) (combine es sts).

Definition mon08_from (w : world) (s : state) (es : list op) (acc : list (nat * (nat * nat)) * list Z) :=
  let sts := run_states w s es in
  fold_left (m08_step w) (combine (combine es sts) (model_obs w es sts)) acc.

Definition mon08_model (w : world) (es : list op) : list Z :=
  dedupZ (snd (mon08_from w (init_state (w_cfg w)) es ([], []))).

Lemma mon08_model_eq inp : mon08 inp (run_store inp) = mon08_model (dec_world inp) (dec_ops inp).
Proof. reflexivity. Qed.

Lemma ob_kind_enc c e s0 s1 mo :
  ob_kind (enc_obs c e s0 s1 mo) = match mo with Done _ _ => 0 | Parked => 1 | Missing _ _ => 2 | Bad => 3 end.
Proof. destruct mo; reflexivity. Qed.
Lemma ob_code_enc c e s0 s1 mo :
  ob_code (enc_obs c e s0 s1 mo) = match mo with Done x _ => x | Missing x _ => x | _ => 0 end.
Proof. destruct mo; reflexivity. Qed.
Lemma ob_negs_enc c e s0 s1 mo :
  ob_negs (enc_obs c e s0 s1 mo) = match mo with Bad => 0 | _ => Z.of_nat (s_negs s1 - s_negs s0) end.
Proof. destruct mo; reflexivity. Qed.

Lemma missing_enc c e s0 s1 code ds : sx_nats (sx_nth (enc_obs c e s0 s1 (Missing code ds)) 2) = ds.
Proof. cbn. apply SxFactsMA.sx_nats_of_nats. Qed.

(** clause 2 never fires *)
Lemma v2_silent w s0 e s1 mo : step w s0 e = (s1, mo) ->
  let o := enc_obs (w_cfg w) e s0 s1 mo in
  (0 <? ob_negs o) && negb (Z.eqb (ob_code o) cInternal) = false.
Proof.
  intros H o. subst o. rewrite ob_negs_enc, ob_code_enc.
  apply step_sfr in H as [[_ Hn _ _ _]|[[_ Hn _ _ _] Ho]].
  - replace (s_negs s1 - s_negs s0)%nat with 0%nat by lia. destruct mo; reflexivity.
  - destruct mo; cbn in Ho; try contradiction; subst; rewrite andb_false_r; reflexivity.
Qed.

(** clause 1: a key that resolves is not "only in quarantine" *)
Lemma stale_newest_ge s k l : index_get s k = Some l ->
  exists l', stale_newest s k = Some l' /\ (l_abs l <= l_abs l')%N.
Proof.
  intros H. pose proof (index_get_some _ _ _ H) as [Hin Hv].
  unfold stale_newest.
  match goal with |- context [newest ?c None] => assert (In l c) as Hl; [|pose proof (newest_max c None) as M; destruct (newest c None) as [r|]] end.
  - apply in_map_iff. exists (k, l). split; [reflexivity|]. apply filter_In. split; [assumption|].
    cbn [fst snd]. unfold loc_valid in Hv. apply andb_true_iff in Hv as [_ Hv]. apply andb_true_iff. split; [apply key_eqb_eq; reflexivity|exact Hv].
  - exists r. split; [reflexivity|]. apply (proj1 M), Hl.
  - destruct M as [M _]. rewrite M in Hl. destruct Hl.
Qed.

Lemma only_in_quarantine_false w s o i k l :
  In k (lookup_keys w o i) -> index_get s k = Some l -> only_in_quarantine w s o i = false.
Proof.
  intros Hk Hg. unfold only_in_quarantine. apply andb_false_iff. right.
  apply not_true_iff_false. intros Hf. rewrite forallb_forall in Hf.
  destruct (stale_newest_ge _ _ _ Hg) as (l' & Hs & Hle).
  specialize (Hf (Some l')). cbv beta iota in Hf.
  pose proof (index_get_quarantine _ _ _ Hg).
  assert ((l_abs l' <? s_tbr s)%N = true) as Hc.
  { apply Hf. rewrite <- Hs. apply in_map. assumption. }
  lia.
Qed.

Lemma v1_get_silent w s0 tid ob i s1 :
  step w s0 (OGetOpen tid ob i) = (s1, Parked) -> only_in_quarantine w s0 ob i = false.
Proof.
  intros H. apply get_open_parks_outside_quarantine in H as (_ & _ & _ & _ & _ & _ & k & l0 & Hk & Hg & _).
  eapply only_in_quarantine_false; eassumption.
Qed.

Lemma v1_fm_silent w s0 ds m s1 :
  step w s0 (OFindMissing ds) = (s1, Missing cOK m) ->
  existsb (fun '(pos, (ob, i)) => negb (existsb (Nat.eqb pos) m) && only_in_quarantine w s0 ob i)
          (enumerate 0 ds) = false.
Proof.
  intros H. apply not_true_iff_false. intros Hf. apply existsb_exists in Hf as ([pos [ob i]] & Hin & Hc).
  apply andb_true_iff in Hc as [Hc1 Hc2]. apply enumerate_in in Hin as [_ Hn]. rewrite Nat.sub_0_r in Hn.
  assert (~ In pos m) as Hm.
  { intros Hm. apply negb_true_iff in Hc1. apply not_true_iff_false in Hc1. apply Hc1.
    apply existsb_exists. exists pos. split; [assumption|apply Nat.eqb_refl]. }
  destruct (find_missing_present_step _ _ _ _ _ _ _ _ H Hn Hm) as (k & l & Hk & Hg & _).
  rewrite (only_in_quarantine_false _ _ _ _ _ _ Hk Hg) in Hc2. discriminate.
Qed.

(** clause 4: NOT_FOUND is only answered when no lookup key resolves *)
Lemma v4_get_silent w s0 tid ob i s1 b :
  step w s0 (OGetOpen tid ob i) = (s1, Done cNotFound b) ->
  match least_specific s0 (lookup_keys w ob i) with Some _ => true | None => false end = false.
Proof.
  unfold step. cbn [may_take_refresh_lock is_corrupt andb].
  destruct (thr_get (s_threads s0) tid); [discriminate|].
  destruct (get_open w s0 ob i) as [[t|e] s'] eqn:G; [discriminate|].
  apply get_open_err in G as [_ G]. iinv. rewrite G; reflexivity.
Qed.

(** clause 3: an upload into a quarantined block is not acknowledged *)
Lemma v3_silent w s0 e tid s1 mo o i wr acc :
  (exists err, e = OPutEnd tid err) \/ (exists d, e = OPutChunk tid d) ->
  step w s0 e = (s1, mo) -> thr_get (s_threads s0) tid = Some (TPut o i wr acc) ->
  ob_ok (enc_obs (w_cfg w) e s0 s1 mo) && (wr_abs wr <? s_tbr s0)%N = false.
Proof.
  intros He H Ht. unfold ob_ok. rewrite ob_kind_enc, ob_code_enc.
  destruct He as [[err ->]|[d ->]].
  - destruct (wr_abs wr <? s_tbr s0)%N eqn:Hq; [|apply andb_false_r].
    destruct (inflight_upload_fails _ _ _ _ _ _ _ _ _ _ Ht ltac:(lia) H) as [(code & -> & Hc) _].
    cbn. destruct (Z.eqb_spec code 0); [contradiction|reflexivity].
  - pose proof (put_chunk_never_ok _ _ _ _ _ _ H) as Hn. destruct mo as [code b| | |]; try reflexivity.
    cbn. destruct (Z.eqb_spec code 0); [subst; exfalso; eapply Hn; reflexivity|reflexivity].
Qed.

Lemma m08_step_silent w g s0 e s1 mo :
  step w s0 e = (s1, mo) ->
  snd (m08_step w (g, []) (e, (s0, s1, mo), enc_obs (w_cfg w) e s0 s1 mo)) = [].
Proof.
  intros H. pose proof (v2_silent _ _ _ _ _ H) as V2. cbv zeta in V2.
  unfold m08_step. rewrite V2.
  destruct e as [tid ob i|tid data|tid err|tid ob i|tid|ds|tid p i ch|tid slices|rg off len]; cbn [snd app]; try reflexivity.
  - (* OPutChunk *)
    destruct (thr_get (s_threads s0) tid) as [[o i wr acc| | | |]|] eqn:Ht; try reflexivity.
    rewrite (v3_silent w s0 _ tid s1 mo o i wr acc (or_intror (ex_intro _ data eq_refl)) H Ht). reflexivity.
  - (* OPutEnd *)
    destruct (thr_get (s_threads s0) tid) as [[o i wr acc| | | |]|] eqn:Ht; try reflexivity.
    rewrite (v3_silent w s0 _ tid s1 mo o i wr acc (or_introl (ex_intro _ err eq_refl)) H Ht). reflexivity.
  - (* OGetOpen *)
    rewrite ob_kind_enc, ob_code_enc. destruct mo as [code b| |code m|]; cbn [Z.eqb andb snd app]; try reflexivity.
    + (* Done: clause 4 *)
      destruct (Z.eqb_spec code cNotFound) as [->|]; cbn [andb app]; [|reflexivity].
      destruct (Nat.ltb 0 (s_negs s0)); cbn [andb app]; [|reflexivity].
      rewrite (v4_get_silent _ _ _ _ _ _ _ H). reflexivity.
    + rewrite (v1_get_silent _ _ _ _ _ _ H). reflexivity.
  - (* OFindMissing *)
    rewrite ob_kind_enc, ob_code_enc. destruct mo as [| |code m|]; cbn [Z.eqb andb snd app]; try reflexivity.
    destruct (Z.eqb_spec code 0); cbn [snd app]; [|reflexivity]. subst code.
    rewrite missing_enc, (v1_fm_silent _ _ _ _ _ H). reflexivity.
Qed.

Lemma mon08_from_silent w es : forall s g, snd (mon08_from w s es (g, [])) = [].
Proof.
  unfold mon08_from, model_obs.
  induction es as [|e t IH]; intros s g; cbn [run_states]; [reflexivity|].
  destruct (step w s e) as [s1 mo] eqn:E. cbn [combine map fold_left].
  pose proof (m08_step_silent w g _ _ _ _ E) as H.
  destruct (m08_step w (g, []) (e, (s, s1, mo), enc_obs (w_cfg w) e s s1 mo)) as [g' v']. cbn in H; subst v'.
  apply IH.
Qed.

Theorem store_model_satisfies_C08 w es : mon08_model w es = [].
Proof. unfold mon08_model. rewrite mon08_from_silent. reflexivity. Qed.

Corollary mon08_silent_on_model inp : mon08 inp (run_store inp) = [].
Proof. rewrite mon08_model_eq. apply store_model_satisfies_C08. Qed.
