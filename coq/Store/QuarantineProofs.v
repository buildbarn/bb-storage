(** Invariants of the quarantine arithmetic (Store/Quarantine.v), for every
    configuration and EVERY interleaving of Put-thread steps, reader hand-outs
    and integrity callbacks (induction over event lists). *)
From Coq Require Import List ZArith Bool Lia.
From BBS Require Import Store.Quarantine.
Import ListNotations.
Open Scope Z_scope.

Definition live (st : qst) : Z := Z.of_nat (length (blocks st)).
Definition tot (st : qst) : Z := rel st + live st.

Definition is_raise (p : pc) : bool := match p with PRaise _ => true | _ => false end.

(** The core invariant: no hypothesis on the configuration. *)
Record Inv (st : qst) : Prop := {
  i_sum : old st + cur st + new st = live st;
  i_lo : rel st <= tbr st + (if is_raise (pcs st) then 1 else 0);
  i_hi : tbr st <= Z.max (rel st) (maxdet st);
  i_det : maxdet st <= tbr st;
  i_detlive : maxdet st <= tot st;
  i_rd : forall rd, In rd (rdrs st) -> r_open rd = true -> r_tgt rd <= tot st;
  i_ps : pstart st <= tbr st;
  i_pc : match pcs st with
         | PCatch _ snap => snap <= tbr st /\ pstart st <= snap
         | PGrow _ | PSpace _ | PPush _ | PPop _ | PRaise _ | PAlloc _ => pstart st <= rel st
         | PDone code _ => code = 0 -> pstart st <= rel st
         | _ => True
         end
}.

Lemma live_cons st x bl : blocks st = x :: bl -> live st = Z.of_nat (length bl) + 1.
Proof. unfold live. intros ->. cbn [length]. lia. Qed.

Lemma len_snoc (l : list Z) x : Z.of_nat (length (l ++ [x])) = Z.of_nat (length l) + 1.
Proof. rewrite app_length. cbn [length]. lia. Qed.

Lemma add_at_length l n d : length (add_at l n d) = length l.
Proof. revert n. induction l as [|x t IH]; intros [|n]; cbn [add_at length]; auto. Qed.

(** The final loop only touches the allocation counters. *)
Lemma set_alloc_id st : set_alloc st (att st) (aidx st) = st.
Proof. destruct st; reflexivity. Qed.

Lemma alloc_loop_frame c sz : forall fuel st st' i,
  alloc_loop fuel c st sz = (st', i) -> exists a j, st' = set_alloc st a j.
Proof.
  induction fuel as [|f IH]; intros st st' i H; cbn [alloc_loop] in H.
  - injection H as <- <-. exists (att st), (aidx st). symmetry. apply set_alloc_id.
  - destruct (if 0 <? att st then
               match has_space c st (old st + cur st + aidx st) sz with
               | None => Some None | Some true => Some (Some (old st + cur st + aidx st))
               | Some false => None end else None) as [[k|]|].
    + injection H as <- <-. eauto.
    + injection H as <- <-. exists (att st), (aidx st). symmetry. apply set_alloc_id.
    + destruct (new st =? 0).
      * injection H as <- <-. exists (att st), (aidx st). symmetry. apply set_alloc_id.
      * apply IH in H. destruct H as (a & j & ->).
        unfold incr_alloc. destruct (new st - q_new c <=? (aidx st + 1) mod new st); exists a, j; reflexivity.
Qed.

Definition running (p : pc) : bool := match p with Idle | PDone _ _ => false | _ => true end.

Lemma running_true p : running p = true -> p <> Idle /\ forall a b, p <> PDone a b.
Proof. destruct p; (discriminate || (split; [|intros a b]; discriminate)). Qed.

Lemma running_false p : running p = false -> p = Idle \/ exists a b, p = PDone a b.
Proof. destruct p; (discriminate || eauto). Qed.

Definition written (st : qst) (a j i sz : Z) : qst :=
  {| rel := rel st; tbr := tbr st; old := old st; cur := cur st; new := new st;
     blocks := add_at (blocks st) (Z.to_nat i) sz; att := a; aidx := j; rdrs := rdrs st;
     puts := puts st ++ [rel st + i]; pcs := PDone 0 i; maxdet := maxdet st; pstart := pstart st |}.

Ltac flds := cbn [rel tbr old cur new blocks att aidx rdrs puts pcs maxdet pstart
                  set_pc set_alloc reset_alloc set_layout set_tbr panic add_rdr is_raise written] in *.

(* one constructor per branch of [put_step]; the index is [next_call] *)
Inductive put_case (c : qcfg) (st : qst) : option Z -> qst -> Prop :=
| pc_halt (Hrun : running (pcs st) = false) : put_case c st None st
| pc_reject sz (Epc : pcs st = PStart sz) (Hsz : q_bs c < sz) :
    put_case c st None (set_pc st (PDone 3 0))
| pc_enter sz (Epc : pcs st = PStart sz) (Hsz : sz <= q_bs c) :
    put_case c st None (set_pc st (PCatch sz (tbr st)))
| pc_catch_empty sz snap (Epc : pcs st = PCatch sz snap) (Hlt : rel st < snap) (Ebl : blocks st = []) :
    put_case c st (Some 0) (panic st)
| pc_catch_old sz snap x bl (Epc : pcs st = PCatch sz snap) (Hlt : rel st < snap)
    (Ebl : blocks st = x :: bl) (Ho : 0 < old st) :
    put_case c st (Some 0) (set_layout st (rel st + 1) (old st - 1) (cur st) (new st) bl)
| pc_catch_cur sz snap x bl (Epc : pcs st = PCatch sz snap) (Hlt : rel st < snap)
    (Ebl : blocks st = x :: bl) (Ho : old st <= 0) (Hc : 0 < cur st) :
    put_case c st (Some 0) (set_layout st (rel st + 1) (old st) (cur st - 1) (new st) bl)
| pc_catch_new sz snap x bl (Epc : pcs st = PCatch sz snap) (Hlt : rel st < snap)
    (Ebl : blocks st = x :: bl) (Ho : old st <= 0) (Hc : cur st <= 0) :
    put_case c st (Some 0) (reset_alloc (set_layout st (rel st + 1) (old st) (cur st) (new st - 1) bl))
| pc_caught sz snap (Epc : pcs st = PCatch sz snap) (Hge : snap <= rel st) :
    put_case c st None (set_pc st (PGrow sz))
| pc_grow sz (Epc : pcs st = PGrow sz) (Eg : grow_new c (cur st) (new st) = true) :
    put_case c st (Some 1) (set_layout st (rel st) (old st) (cur st) (new st + 1) (blocks st ++ [q_pb c]))
| pc_grown sz (Epc : pcs st = PGrow sz) (Eg : grow_new c (cur st) (new st) = false) :
    put_case c st None (set_pc st (PSpace sz))
| pc_space_none sz (Epc : pcs st = PSpace sz) (Eh : has_space c st (old st + cur st) sz = None) :
    put_case c st None (panic st)
| pc_space_room sz (Epc : pcs st = PSpace sz) (Eh : has_space c st (old st + cur st) sz = Some true) :
    put_case c st None (set_pc st (PAlloc sz))
| pc_space_excess sz (Epc : pcs st = PSpace sz) (Eh : has_space c st (old st + cur st) sz = Some false)
    (Hn : q_new c < new st) :
    put_case c st None (reset_alloc (set_layout st (rel st) (old st) (cur st + 1) (new st - 1) (blocks st)))
| pc_space_full sz (Epc : pcs st = PSpace sz) (Eh : has_space c st (old st + cur st) sz = Some false)
    (Hn : new st <= q_new c) :
    put_case c st None (set_pc st (PPush sz))
| pc_push_cur sz (Epc : pcs st = PPush sz) (Egc : grow_cur c (cur st) = true) :
    put_case c st (Some 1) (set_pc (reset_alloc (set_layout st (rel st) (old st) (cur st + 1) (new st)
                                          (blocks st ++ [q_pb c]))) (PSpace sz))
| pc_push_pop sz (Epc : pcs st = PPush sz) (Egc : grow_cur c (cur st) = false) (Hq : q_old c < old st + 1) :
    put_case c st (Some 1) (set_pc (set_layout st (rel st) (old st + 1) (cur st) (new st) (blocks st ++ [q_pb c])) (PPop sz))
| pc_push_old sz (Epc : pcs st = PPush sz) (Egc : grow_cur c (cur st) = false) (Hq : old st + 1 <= q_old c) :
    put_case c st (Some 1) (set_pc (reset_alloc (set_layout st (rel st) (old st + 1) (cur st) (new st)
                                          (blocks st ++ [q_pb c]))) (PSpace sz))
| pc_pop_empty sz (Epc : pcs st = PPop sz) (Ebl : blocks st = []) : put_case c st (Some 0) (panic st)
| pc_pop sz x bl (Epc : pcs st = PPop sz) (Ebl : blocks st = x :: bl) :
    put_case c st (Some 0) (set_pc (set_layout st (rel st + 1) (old st - 1) (cur st) (new st) bl) (PRaise sz))
| pc_raise sz (Epc : pcs st = PRaise sz) :
    put_case c st None (set_pc (reset_alloc (set_tbr st (Z.max (tbr st) (rel st)) (maxdet st) (rdrs st))) (PSpace sz))
| pc_alloc_fail sz a j i (Epc : pcs st = PAlloc sz)
    (Eal : alloc_loop (alloc_fuel st) c st sz = (set_alloc st a j, i)) (Hi : i < 0) :
    put_case c st None (set_pc (set_alloc st a j) (PDone i 0))
| pc_alloc sz a j i (Epc : pcs st = PAlloc sz)
    (Eal : alloc_loop (alloc_fuel st) c st sz = (set_alloc st a j, i)) (Hi : 0 <= i) :
    put_case c st None (written st a j i sz).

Lemma put_step_cases c st : put_case c st (next_call c st) (put_step c st).
Proof.
  unfold put_step, next_call. destruct (pcs st) eqn:Epc.
  - apply pc_halt. rewrite Epc. reflexivity.
  - destruct (Z.ltb_spec (q_bs c) sz); [eapply pc_reject|eapply pc_enter]; eassumption.
  - destruct (Z.ltb_spec (rel st) snap); [|eapply pc_caught; eassumption].
    destruct (blocks st) eqn:Ebl; [eapply pc_catch_empty; eassumption|].
    destruct (Z.ltb_spec 0 (old st)); [eapply pc_catch_old; eassumption|].
    destruct (Z.ltb_spec 0 (cur st)); [eapply pc_catch_cur|eapply pc_catch_new]; eassumption.
  - destruct (grow_new c (cur st) (new st)) eqn:Eg; [eapply pc_grow|eapply pc_grown]; eassumption.
  - destruct (has_space c st (old st + cur st) sz) as [[|]|] eqn:Eh;
      [eapply pc_space_room; eassumption| |eapply pc_space_none; eassumption].
    destruct (Z.ltb_spec (q_new c) (new st)); [eapply pc_space_excess|eapply pc_space_full]; eassumption.
  - destruct (grow_cur c (cur st)) eqn:Egc; [eapply pc_push_cur; eassumption|].
    destruct (Z.ltb_spec (q_old c) (old st + 1)); [eapply pc_push_pop|eapply pc_push_old]; eassumption.
  - destruct (blocks st) eqn:Ebl; [eapply pc_pop_empty|eapply pc_pop]; eassumption.
  - eapply pc_raise; eassumption.
  - destruct (alloc_loop (alloc_fuel st) c st sz) as [st1 i] eqn:Eal.
    destruct (alloc_loop_frame _ _ _ _ _ _ Eal) as (a & j & ->).
    destruct (Z.ltb_spec i 0) as [Hi|Hi]; [eapply pc_alloc_fail; eassumption|exact (pc_alloc c st sz a j i Epc Eal Hi)].
  - apply pc_halt. rewrite Epc. reflexivity.
Qed.

(* [Inv] under the elementary updates [put_step] is composed of *)
Definition pc_ok (st : qst) (p : pc) : Prop :=
  match p with
  | PCatch _ snap => snap <= tbr st /\ pstart st <= snap
  | PGrow _ | PSpace _ | PPush _ | PPop _ | PRaise _ | PAlloc _ => pstart st <= rel st
  | PDone code _ => code = 0 -> pstart st <= rel st
  | _ => True
  end.

Lemma inv_set_alloc st a j : Inv st -> Inv (set_alloc st a j).
Proof. intros []. constructor; assumption. Qed.

Lemma inv_set_pc st p : Inv st -> rel st <= tbr st + (if is_raise p then 1 else 0) -> pc_ok st p ->
  Inv (set_pc st p).
Proof. intros [] Hlo Hpc. constructor; assumption. Qed.

Lemma inv_pop st x bl o cu n : Inv st -> blocks st = x :: bl ->
  o + cu + n + 1 = old st + cur st + new st ->
  rel st + 1 <= tbr st + (if is_raise (pcs st) then 1 else 0) ->
  Inv (set_layout st (rel st + 1) o cu n bl).
Proof.
  intros [Hs _ Hhi Hd Hdl Hrd Hps Hpc] Ebl Hsum Hlo. unfold tot, live in *. rewrite Ebl in *. cbn [length] in *.
  constructor; unfold tot, live; flds; try lia.
  - intros rd Hin Hop. specialize (Hrd rd Hin Hop). lia.
  - destruct (pcs st); auto; lia.
Qed.

Lemma inv_layout st o cu n bl : Inv st -> o + cu + n = Z.of_nat (length bl) ->
  live st <= Z.of_nat (length bl) -> Inv (set_layout st (rel st) o cu n bl).
Proof.
  intros [Hs Hlo Hhi Hd Hdl Hrd Hps Hpc] Hsum Hlen. unfold tot, live in *.
  constructor; unfold tot, live; flds; try assumption; try lia.
  intros rd Hin Hop. specialize (Hrd rd Hin Hop). lia.
Qed.

Lemma inv_put_step c st : Inv st -> Inv (put_step c st).
Proof.
  intros H. pose proof (i_sum _ H) as Hs. pose proof (i_lo _ H) as Hlo. pose proof (i_pc _ H) as Hpc.
  pose proof (i_ps _ H) as Hps. unfold live in Hs.
  destruct (put_step_cases c st); try exact H; rewrite Epc in Hlo, Hpc; cbn [is_raise] in Hlo.
  all: try (apply inv_set_pc; [|exact Hlo|cbn [pc_ok]; flds; lia]); try apply inv_set_alloc; try exact H.
  all: try (eapply inv_pop; [exact H|exact Ebl|lia|rewrite Epc; cbn [is_raise]; lia]).
  all: try (apply inv_layout; [exact H|rewrite ?len_snoc; lia|unfold live; rewrite ?len_snoc; lia]).
  - (* the pop leaves [rel] one above the boundary at most: what [PRaise] allows *)
    refine (inv_pop (set_pc st (PRaise sz)) x bl _ _ _ (inv_set_pc st (PRaise sz) H _ Hpc) Ebl _ _);
      cbn [set_pc set_layout rel tbr old cur new pcs is_raise]; lia.
  - destruct H as [_ _ Hhi Hd Hdl Hrd _ _]. constructor; flds; try assumption; lia.
  - destruct H as [_ _ Hhi Hd Hdl Hrd _ _].
    constructor; unfold tot, live in *; flds; rewrite ?add_at_length; try assumption; lia.
Qed.

Lemma nth_upd_rdr_open l : forall n m rd, nth_error (upd_rdr l n) m = Some rd -> r_open rd = true ->
  nth_error l m = Some rd /\ n <> m.
Proof.
  induction l as [|x t IH]; intros [|n] [|m] rd H Ho; cbn [upd_rdr nth_error] in *; try discriminate; auto.
  - injection H as <-. discriminate.
  - destruct (IH _ _ _ H Ho). auto.
Qed.

Lemma in_upd_rdr l n rd : In rd (upd_rdr l n) -> r_open rd = true -> In rd l.
Proof.
  intros Hi Ho. apply In_nth_error in Hi as [m Hm].
  destruct (nth_upd_rdr_open _ _ _ _ Hm Ho) as [H _]. eapply nth_error_In, H.
Qed.

Lemma inv_detect st r : Inv st -> Inv (detect st r).
Proof.
  intros H. unfold detect.
  destruct (nth_error (rdrs st) r) as [rd|] eqn:En; [|exact H].
  destruct (r_open rd) eqn:Eo; [|exact H].
  pose proof (nth_error_In _ _ En) as Hin.
  destruct H as [Hs Hlo Hhi Hd Hdl Hrd Hps Hpc].
  pose proof (Hrd rd Hin Eo) as Ht.
  assert (Hrd' : forall rd0, In rd0 (upd_rdr (rdrs st) r) -> r_open rd0 = true -> r_tgt rd0 <= tot st).
  { intros rd0 Hi Ho. apply Hrd; [eapply in_upd_rdr; eauto|exact Ho]. }
  unfold tot, live in *.
  destruct (r_bad rd); constructor; unfold tot, live; flds; auto; try lia.
  all: destruct (pcs st); flds; try lia; auto.
  all: try (destruct Hpc; split; lia).
Qed.

Lemma inv_open st k bad : Inv st -> Inv (open st k bad).
Proof.
  intros [Hs Hlo Hhi Hd Hdl Hrd Hps Hpc]. unfold open.
  destruct (can_open st k) eqn:Eco.
  - unfold can_open in Eco. destruct (pcs st) eqn:Epc; try discriminate.
    apply andb_prop in Eco. destruct Eco as [Eco _]. apply andb_prop in Eco. destruct Eco as [E1 E2].
    apply Z.leb_le in E1. apply Z.ltb_lt in E2.
    constructor; unfold tot, live in *; flds; rewrite ?Epc; auto.
    intros rd Hi Ho. apply in_app_or in Hi. destruct Hi as [Hi|[<-|[]]]; [auto|cbn [r_tgt]; lia].
  - constructor; unfold tot, live in *; flds; auto.
    intros rd Hi Ho. apply in_app_or in Hi. destruct Hi as [Hi|[<-|[]]]; [auto|discriminate].
Qed.

Lemma inv_start st sz : Inv st -> Inv (start st sz).
Proof.
  intros H. unfold start. destruct (pcs st) eqn:Epc; try exact H.
  destruct H as [Hs Hlo Hhi Hd Hdl Hrd Hps Hpc].
  rewrite Epc in *. constructor; unfold tot, live in *; flds; auto; try lia.
Qed.

Lemma inv_finish st : Inv st -> Inv (finish st).
Proof.
  intros H. unfold finish. destruct (pcs st) eqn:Epc; try exact H.
  destruct H as [Hs Hlo Hhi Hd Hdl Hrd Hps Hpc].
  rewrite Epc in *. constructor; unfold tot, live in *; flds; auto.
Qed.

Lemma inv_step c st e : Inv st -> Inv (step c st e).
Proof.
  destruct e; cbn [step]; auto using inv_put_step, inv_detect, inv_open, inv_start, inv_finish.
Qed.

Lemma inv_init : Inv init.
Proof. constructor; unfold tot, live; cbn; try lia; auto. all: try (intros rd []). Qed.

Lemma promote_sum g : forall n x n' x', promote n g x = (n', x') ->
  Z.of_nat n' + (x' - x) = Z.of_nat n /\ x <= x'.
Proof.
  induction n as [|n IH]; intros x n' x' H; cbn [promote] in H.
  - injection H as <- <-. lia.
  - destruct (g x).
    + apply IH in H. lia.
    + injection H as <- <-. lia.
Qed.

Lemma promote_ext g g' : (forall x, g x = g' x) -> forall n x, promote n g x = promote n g' x.
Proof.
  intros E. induction n as [|n IH]; intros x; cbn [promote]; [reflexivity|]. rewrite <- E.
  destruct (g x); [apply IH|reflexivity].
Qed.

(** the shape of [init_of c], with the sums the loops preserve *)
Lemma init_of_shape c : exists o cu nw,
  let t := if q_old c <? o then o - q_old c else 0 in
  init_of c = {| rel := 0; tbr := t; old := o; cur := cu; new := nw;
                 blocks := repeat (q_pb c) (Z.to_nat (q_init c)); att := 0; aidx := -1;
                 rdrs := []; puts := []; pcs := Idle; maxdet := t; pstart := 0 |}
  /\ 0 <= o /\ 0 <= cu /\ 0 <= nw /\ o + cu + nw = Z.of_nat (Z.to_nat (q_init c)).
Proof.
  unfold init_of.
  destruct (promote (Z.to_nat (q_init c)) (fun x => grow_new c 0 x) 0) as [n1 nw] eqn:E1.
  destruct (promote n1 (grow_cur c) 0) as [n2 cu] eqn:E2.
  apply promote_sum in E1. apply promote_sum in E2.
  exists (Z.of_nat n2), cu, nw. cbv zeta. split; [reflexivity|]. lia.
Qed.

(** [0 <= desiredOldBlocksCount]: otherwise the constructor asks for the
    release of more blocks than exist. *)
Definition wf0 (c : qcfg) : Prop := 0 <= q_old c.

Lemma inv_init_of c : wf0 c -> Inv (init_of c).
Proof.
  intros Hq. destruct (init_of_shape c) as (o & cu & nw & E & Ho & Hcu & Hnw & Hsum). cbv zeta in E.
  rewrite E. unfold wf0 in Hq.
  constructor; unfold tot, live; flds; rewrite ?repeat_length; auto; try (intros rd []);
    destruct (q_old c <? o) eqn:Eq; try apply Z.ltb_lt in Eq; try apply Z.ltb_ge in Eq; lia.
Qed.

Lemma init_of_0 c : q_init c <= 0 -> wf0 c -> init_of c = init.
Proof.
  intros Hn Hq. unfold init_of. replace (Z.to_nat (q_init c)) with O by lia. cbn [promote repeat Z.of_nat].
  unfold wf0 in Hq. destruct (q_old c <? 0) eqn:E; [apply Z.ltb_lt in E; lia|reflexivity].
Qed.

Lemma inv_run c es : forall st, Inv st -> Inv (run_evs c st es).
Proof. induction es as [|e t IH]; intros st H; cbn [run_evs fold_left]; [exact H|]. apply IH, inv_step, H. Qed.

Theorem inv_reach c es : wf0 c -> Inv (run_evs c (init_of c) es).
Proof. intros Hq. apply inv_run, inv_init_of, Hq. Qed.

Record Mono (a b : qst) : Prop := {
  m_tbr : tbr a <= tbr b;
  m_rel : rel a <= rel b;
  m_det : maxdet a <= maxdet b;
  m_ps : pstart a <= pstart b
}.

Lemma mono_refl st : Mono st st.
Proof. constructor; lia. Qed.

Lemma mono_trans a b d : Mono a b -> Mono b d -> Mono a d.
Proof. intros [] []; constructor; lia. Qed.

Lemma mono_put_step c st : Mono st (put_step c st).
Proof. destruct (put_step_cases c st); constructor; flds; try apply Z.le_refl; lia. Qed.

Lemma mono_step c st e : Inv st -> Mono st (step c st e).
Proof.
  intros HI. destruct e; cbn [step].
  - unfold start. destruct (pcs st); try apply mono_refl. constructor; flds; try lia. apply (i_ps _ HI).
  - apply mono_put_step.
  - unfold finish. destruct (pcs st); try apply mono_refl. constructor; flds; lia.
  - unfold open. destruct (can_open st k); constructor; flds; lia.
  - unfold detect. destruct (nth_error (rdrs st) r) as [rd|]; [|apply mono_refl].
    destruct (r_open rd); [|apply mono_refl]. destruct (r_bad rd); constructor; flds; lia.
Qed.

Lemma mono_run c es : forall st, Inv st -> Mono st (run_evs c st es).
Proof.
  induction es as [|e t IH]; intros st H; cbn [run_evs fold_left]; [apply mono_refl|].
  eapply mono_trans; [apply mono_step, H|]. apply IH, inv_step, H.
Qed.

(** The boundary is never below the release counter (outside the one step
    between a rotation's popFront and its raise, which runs under the write
    lock) and never above what ordinary rotation and the detections justify;
    every detection is honoured. *)
Lemma boundary_justified_reach c es :
  wf0 c ->
  let st := run_evs c (init_of c) es in
  rel st <= tbr st + (if is_raise (pcs st) then 1 else 0)
  /\ tbr st <= Z.max (rel st) (maxdet st) /\ maxdet st <= tbr st.
Proof. intros Hq st. pose proof (inv_reach c es Hq) as H. split; [|split]; apply H. Qed.

(** The catch-up loop never pops an empty list. *)
Lemma catch_has_blocks st sz snap : Inv st -> pcs st = PCatch sz snap -> rel st < snap -> blocks st <> [].
Proof.
  intros H Epc Hlt E. pose proof (i_pc _ H) as Hp. rewrite Epc in Hp.
  pose proof (i_hi _ H). pose proof (i_detlive _ H) as Hdl. pose proof (i_lo _ H) as Hlo. rewrite Epc in Hlo. flds.
  unfold tot, live in Hdl. rewrite E in Hdl. cbn [length] in Hdl. lia.
Qed.

Lemma catch_up_has_blocks_reach c es sz snap :
  wf0 c ->
  let st := run_evs c (init_of c) es in
  pcs st = PCatch sz snap -> rel st < snap -> blocks st <> [].
Proof. intros Hq st. apply catch_has_blocks, inv_reach, Hq. Qed.

(** A live block newer than every detected block is not hidden. *)
Lemma newer_never_hidden_reach c es i :
  wf0 c ->
  let st := run_evs c (init_of c) es in
  is_raise (pcs st) = false -> 0 <= i -> maxdet st <= rel st + i -> hidden st i = false.
Proof.
  intros Hq st Hr Hi Hm. pose proof (inv_reach c es Hq) as H. fold st in H.
  pose proof (i_lo _ H) as Hlo. rewrite Hr in Hlo. pose proof (i_hi _ H).
  unfold hidden. destruct (tbr st <? rel st) eqn:E; [apply Z.ltb_lt in E; lia|].
  apply Z.ltb_ge. lia.
Qed.

(** A detected block and all older ones are hidden from the callback on, for ever. *)
Lemma detected_hidden_at_once_reach c es r rd es' i :
  wf0 c ->
  let st := run_evs c (init_of c) es in
  nth_error (rdrs st) r = Some rd -> r_open rd = true -> r_bad rd = true ->
  let st' := run_evs c (detect st r) es' in
  r_tgt rd <= tbr st' /\ (rel st' + i < r_tgt rd -> hidden st' i = true).
Proof.
  intros Hq st En Eo Eb st'.
  pose proof (inv_reach c es Hq) as H. fold st in H.
  pose proof (mono_run c es' _ (inv_detect st r H)) as M. fold st' in M.
  assert (Ht : r_tgt rd <= tbr (detect st r)).
  { unfold detect. rewrite En, Eo, Eb. flds. lia. }
  pose proof (m_tbr _ _ M). split; [lia|].
  intros Hlt. unfold hidden. destruct (tbr st' <? rel st'); [reflexivity|]. apply Z.ltb_lt. lia.
Qed.

(** Every block quarantined when a Put() is entered has been released when
    that Put() hands out its writer. *)
Lemma released_by_next_put_reach c es sz es' idx :
  wf0 c ->
  let st := run_evs c (init_of c) es in
  pcs st = Idle ->
  let st' := run_evs c (start st sz) es' in
  pcs st' = PDone 0 idx -> tbr st <= rel st'.
Proof.
  intros Hq st Epc st' Ed.
  pose proof (inv_reach c es Hq) as H. fold st in H.
  pose proof (inv_start st sz H) as H1.
  pose proof (inv_run c es' _ H1) as H2. fold st' in H2.
  pose proof (mono_run c es' _ H1) as M. fold st' in M.
  pose proof (i_pc _ H2) as Hp. rewrite Ed in Hp. specialize (Hp eq_refl).
  pose proof (m_ps _ _ M) as Hps. unfold start in Hps. rewrite Epc in Hps. flds. lia.
Qed.

(** Capacity: an ordinary rotation discards a block only when the list is
    above its configured capacity. *)
Definition capq (c : qcfg) : Z := q_old c + q_cur c + (if q_mut c then 1 else q_new c).

Record Cap (c : qcfg) (st : qst) : Prop := {
  (* the "old" blocks above desiredOldBlocksCount are those the constructor quarantined:
     gone when the catch-up loop of the first Put() is through *)
  c_old : old st <= q_old c + (match pcs st with
                               | Idle | PStart _ | PDone _ _ => Z.max 0 (tbr st - rel st)
                               | PCatch _ snap => Z.max 0 (snap - rel st)
                               | PPop _ => 1
                               | _ => 0
                               end);
  c_grown : match pcs st with
            | PSpace _ | PPush _ | PPop _ | PRaise _ | PAlloc _ => grow_new c (cur st) (new st) = false
            | _ => True end;
  c_pop : match pcs st with PPop _ => grow_cur c (cur st) = false /\ old st = q_old c + 1 | _ => True end
}.

Definition wfq (c : qcfg) : Prop := 0 <= q_old c /\ 0 <= q_cur c /\ 1 <= q_new c.

Lemma rotation_pop_over_capacity c st sz :
  Inv st -> Cap c st -> pcs st = PPop sz -> capq c + 1 <= live st.
Proof.
  intros HI [Ho Hg Hp] Epc. rewrite Epc in *. destruct Hp as [Hgc Hold].
  pose proof (i_sum _ HI) as Hs.
  unfold capq, grow_new, grow_cur in *. destruct (q_mut c).
  - apply Z.ltb_ge in Hg. apply Z.ltb_ge in Hgc. lia.
  - apply Z.ltb_ge in Hg. lia.
Qed.

Lemma pop_has_blocks c st sz : wfq c -> Inv st -> Cap c st -> pcs st = PPop sz -> blocks st <> [].
Proof.
  intros (? & ? & ?) HI HC Epc E. pose proof (rotation_pop_over_capacity c st sz HI HC Epc) as Hcap.
  unfold live, capq in Hcap. rewrite E in Hcap. cbn [length] in Hcap. destruct (q_mut c); lia.
Qed.

Lemma cap_put_step c st : wfq c -> Inv st -> Cap c st -> Cap c (put_step c st).
Proof.
  intros Hq HI HC. pose proof Hq as (Hq0 & Hwc & Hw). pose proof HC as [Ho Hg Hp]. pose proof (i_pc _ HI) as Hpc.
  destruct (put_step_cases c st); [exact HC|..]; rewrite Epc in Ho, Hg, Hp, Hpc;
    constructor; flds; rewrite ?Epc; auto; try lia.
  - (* an excess "new" block becomes "current": the policy still wants no more *)
    unfold grow_new in *. destruct (q_mut c); [apply Z.ltb_ge; lia|].
    replace (cur st + 1 + (new st - 1)) with (cur st + new st) by lia. exact Hg.
  - unfold grow_new, grow_cur in *. destruct (q_mut c); [exact Hg|discriminate].
  - split; [assumption|lia].
  - destruct (pop_has_blocks c st sz Hq HI HC Epc Ebl).
Qed.

Lemma cap_detect c st r : Cap c st -> Cap c (detect st r).
Proof.
  intros H. unfold detect. destruct (nth_error (rdrs st) r) as [rd|]; [|exact H].
  destruct (r_open rd); [|exact H]. destruct H as [Ho Hg Hp].
  destruct (r_bad rd); constructor; flds; auto.
  eapply Z.le_trans; [exact Ho|]. apply Z.add_le_mono_l. destruct (pcs st); try apply Z.le_refl; lia.
Qed.

Lemma cap_step c st e : wfq c -> Inv st -> Cap c st -> Cap c (step c st e).
Proof.
  intros Hw HI H. destruct e; cbn [step].
  - unfold start. destruct (pcs st) eqn:Epc; try exact H. destruct H as [Ho Hg Hp]. rewrite Epc in *.
    constructor; flds; auto.
  - apply cap_put_step; assumption.
  - unfold finish. destruct (pcs st) eqn:Epc; try exact H. destruct H as [Ho Hg Hp]. rewrite Epc in *.
    constructor; flds; auto.
  - unfold open. destruct H as [Ho Hg Hp]. destruct (can_open st k); constructor; flds; auto.
  - apply cap_detect, H.
Qed.

Lemma cap_run c es : wfq c -> forall st, Inv st -> Cap c st -> Cap c (run_evs c st es).
Proof.
  intros Hw. induction es as [|e t IH]; intros st HI H; cbn [run_evs fold_left]; [exact H|].
  apply IH; [apply inv_step, HI|apply cap_step; assumption].
Qed.

Lemma cap_init c : wfq c -> Cap c init.
Proof. intros [H _]. constructor; cbn; auto. lia. Qed.

Lemma cap_init_of c : Cap c (init_of c).
Proof.
  destruct (init_of_shape c) as (o & cu & nw & E & Ho & Hcu & Hnw & Hsum). cbv zeta in E. rewrite E.
  constructor; flds; auto. destruct (q_old c <? o) eqn:Eq; [apply Z.ltb_lt in Eq|apply Z.ltb_ge in Eq]; lia.
Qed.

(** Every Put-thread step that releases a block releases either a quarantined
    one (detected or older) or, by ordinary rotation, the oldest block of a list
    that is above its configured capacity. *)
Lemma release_justified_reach c es :
  wfq c ->
  let st := run_evs c (init_of c) es in
  rel (put_step c st) <> rel st ->
  rel (put_step c st) = rel st + 1
  /\ (rel st < maxdet st \/ (exists sz, pcs st = PPop sz) /\ capq c + 1 <= live st).
Proof.
  intros Hq st Hne.
  pose proof (inv_reach c es (proj1 Hq)) as HI. fold st in HI.
  pose proof (cap_run c es Hq _ (inv_init_of c (proj1 Hq)) (cap_init_of c)) as HC. fold st in HC.
  revert Hne. destruct (put_step_cases c st); flds; try (intros Hne; exfalso; apply Hne; reflexivity);
    intros _; (split; [reflexivity|]).
  1-3: left; pose proof (i_pc _ HI) as Hp; rewrite Epc in Hp; pose proof (i_hi _ HI); pose proof (i_lo _ HI) as Hlo;
    rewrite Epc in Hlo; cbn [is_raise] in Hlo; lia.
  right. split; [eauto|]. eapply rotation_pop_over_capacity; eauto.
Qed.
