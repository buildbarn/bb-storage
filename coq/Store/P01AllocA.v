(** C01 proofs: the allocator path ([ocn_put]) preserves the data invariant.
    Basic lemmas, extensionality of the invariant in the state fields it
    reads and a generic monotonicity lemma for [CInv]; then BlockList.PopFront,
    NewBlock + PushBack and the allocation inside the chosen block;
    findBlockWithSpace's four loops and LocationBlobMap.Put, where a
    successful Put adds the writer claim of the new allocation. *)
From Coq Require Import List NArith ZArith Bool Arith Lia Permutation ZifyN ZifyNat ZifyBool.
From BBS Require Import Store.Model Store.Wf Store.P01Inv.
From BBS Require Export Store.P01OpsB1.
Import ListNotations.
Open Scope N_scope.

Lemma uid_at_nth s n b :
  nth_error (s_blocks s) n = Some b -> uid_at s (s_released s + N.of_nat n) = Some (b_uid b).
Proof.
  intros H. unfold uid_at.
  replace (s_released s + N.of_nat n <? s_released s) with false by lia.
  replace (N.to_nat (s_released s + N.of_nat n - s_released s)) with n by lia.
  rewrite H. reflexivity.
Qed.

Lemma nth_error_lt {A} (l : list A) n x : nth_error l n = Some x -> (n < length l)%nat.
Proof. intros H. apply nth_error_Some. congruence. Qed.

Lemma nrefs_in uid cl c : In c cl -> (cref uid c <= nrefs uid cl)%nat.
Proof.
  induction cl as [|a cl IH]; intros H; [destruct H|].
  rewrite nrefs_cons. destruct H as [->|H]; [lia|]. specialize (IH H). lia.
Qed.

Lemma nrefs_zero uid cl : (forall c, In c cl -> cref uid c = 0%nat) -> nrefs uid cl = 0%nat.
Proof.
  induction cl as [|a cl IH]; intros H; [reflexivity|].
  rewrite nrefs_cons, (H a (or_introl eq_refl)), IH; [reflexivity|].
  intros c Hc. apply H. right. exact Hc.
Qed.

Lemma cref_live w s c uid :
  claim_ok w s c -> cref uid c <> 0%nat -> exists b, In b (live s) /\ b_uid b = uid.
Proof.
  destruct c as [wr acc|u l o|wr o]; cbn [cref claim_ok].
  - destruct (Nat.eqb (wr_uid wr) uid) eqn:E; [|congruence]. apply Nat.eqb_eq in E.
    intros (cur & reg & Hb & _) _. apply binfo_in in Hb. destruct Hb as (b & _ & Hin & Hu & _).
    exists b. split; congruence.
  - destruct (Nat.eqb u uid) eqn:E; [|congruence]. apply Nat.eqb_eq in E.
    intros (cur & reg & Hb & _) _. apply binfo_in in Hb. destruct Hb as (b & _ & Hin & Hu & _).
    exists b. split; congruence.
  - congruence.
Qed.

Lemma nrefs_not_live w cl s uid :
  (forall c, In c cl -> claim_ok w s c) ->
  (forall b, In b (live s) -> b_uid b <> uid) -> nrefs uid cl = 0%nat.
Proof.
  intros Hc Hn. apply nrefs_zero. intros c Hin.
  destruct (Nat.eq_dec (cref uid c) 0) as [E|E]; [exact E|].
  destruct (cref_live w s c uid (Hc c Hin) E) as (b & Hb & Hu).
  exfalso. exact (Hn b Hb Hu).
Qed.

Definition len_ok (s : state) : Prop :=
  length (s_blocks s) = (s_old s + s_cur s + s_new s)%nat.

Definition core9 (s s' : state) : Prop :=
  s_blocks s' = s_blocks s /\ s_zombies s' = s_zombies s /\ s_free s' = s_free s /\
  s_next_region s' = s_next_region s /\ s_next_uid s' = s_next_uid s /\ s_dev s' = s_dev s /\
  s_released s' = s_released s /\ s_tbr s' = s_tbr s /\ s_index s' = s_index s.

Lemma core9_refl s : core9 s s.
Proof. repeat split. Qed.

Lemma DInv_ext w cl s s' : core9 s s' -> len_ok s' -> DInv w cl s -> DInv w cl s'.
Proof.
  intros (e1 & e2 & e3 & e4 & e5 & e6 & e7 & e8 & e9) L D.
  apply (DInv_view w cl s s'); [constructor; try congruence|exact e1|exact e2|exact D].
  unfold len_ok in L. rewrite <- L, e1. apply (a_len _ _ (d_a _ _ _ D)).
Qed.

(** transitions that keep blocks, possibly advancing cursors *)
Definition fwd (s' : state) (b : block) : Prop :=
  exists b', In b' (live s') /\ b_uid b' = b_uid b /\ b_region b' = b_region b /\
             b_cursor b <= b_cursor b'.

Record Mono (cl : list claim) (s s' : state) : Prop := {
  m_idx : s_index s' = s_index s;
  m_next : (s_next_uid s <= s_next_uid s')%nat;
  m_rel : s_released s <= s_released s';
  m_tbr : s_tbr s <= s_tbr s';
  m_end : abs_end s <= abs_end s';
  m_uid_at : forall abs, s_released s' <= abs -> abs < abs_end s -> uid_at s' abs = uid_at s abs;
  m_back : forall b', In b' (live s') -> (b_uid b' < s_next_uid s)%nat ->
           exists b, In b (live s) /\ b_uid b = b_uid b' /\ b_region b = b_region b' /\
                     b_cursor b <= b_cursor b';
  m_dev : forall b, In b (live s) -> dev_get (s_dev s') (b_region b) = dev_get (s_dev s) (b_region b);
  m_fwd_cl : forall b, In b (live s) -> (1 <= nrefs (b_uid b) cl)%nat -> fwd s' b;
  m_fwd_at : forall b n, nth_error (s_blocks s) n = Some b ->
             s_tbr s' <= s_released s + N.of_nat n -> fwd s' b;
}.

Section Alloc.
Variables (w : world) (cl : list claim).

Lemma fwd_binfo c s s' uid cur reg :
  AInv c s' -> Mono cl s s' -> binfo s uid = Some (cur, reg) ->
  (forall b, In b (live s) -> b_uid b = uid -> fwd s' b) ->
  exists cur', binfo s' uid = Some (cur', reg) /\ cur <= cur' /\
               dev_get (s_dev s') reg = dev_get (s_dev s) reg.
Proof.
  intros A' M Hb Hf. apply binfo_in in Hb. destruct Hb as (b & _ & Hin & Hu & Hc & Hr).
  destruct (Hf b Hin Hu) as (b' & Hin' & Hu' & Hr' & Hc').
  exists (b_cursor b'). split; [|split; [lia|rewrite <- Hr; apply (m_dev _ _ _ M), Hin]].
  rewrite <- Hu, <- Hu', <- Hr, <- Hr'. apply binfo_live; [apply (a_uid_nd _ _ A')|exact Hin'].
Qed.

Lemma CInv_mono s s' :
  AInv (w_cfg w) s -> AInv (w_cfg w) s' -> Mono cl s s' ->
  CInv w cl s -> CInv w cl s'.
Proof.
  intros A A' M C.
  assert (RT : s_released s' <= s_tbr s') by apply (a_rel _ _ A').
  (* blocks listed at or after tbr s' keep their info *)
  assert (AT : forall abs uid cur reg, s_tbr s' <= abs -> uid_at s abs = Some uid ->
                 binfo s uid = Some (cur, reg) ->
                 uid_at s' abs = Some uid /\
                 exists cur', binfo s' uid = Some (cur', reg) /\ cur <= cur' /\
                              dev_get (s_dev s') reg = dev_get (s_dev s) reg).
  { intros abs uid cur reg Ht Hu Hb. split.
    - rewrite (m_uid_at _ _ _ M); [exact Hu|lia|eapply uid_at_bounds; exact Hu].
    - destruct (uid_at_some _ _ _ Hu) as (Hr & b0 & Hn & Hu0).
      apply (fwd_binfo (w_cfg w) s s' uid cur reg A' M Hb). intros b Hin Hub.
      assert (b = b0).
      { apply (NoDup_map_inj b_uid (live s)); [apply (a_uid_nd _ _ A)|exact Hin| |congruence].
        unfold live. apply in_or_app. left. eapply nth_error_In. exact Hn. }
      subst b0. apply (m_fwd_at _ _ _ M b _ Hn). lia. }
  (* referenced blocks keep their info *)
  assert (CL : forall c uid cur reg, In c cl -> cref uid c <> 0%nat -> binfo s uid = Some (cur, reg) ->
                 exists cur', binfo s' uid = Some (cur', reg) /\ cur <= cur' /\
                              dev_get (s_dev s') reg = dev_get (s_dev s) reg).
  { intros c uid cur reg Hin Hc Hb.
    apply (fwd_binfo (w_cfg w) s s' uid cur reg A' M Hb).
    intros b Hinb Hub. apply (m_fwd_cl _ _ _ M b Hinb). rewrite Hub.
    pose proof (nrefs_in uid cl c Hin). lia. }
  assert (LV : forall k l, In (k, l) (s_index s) -> loc_valid s' l = true ->
                 loc_valid s l = true /\ s_tbr s' <= l_abs l).
  { intros k l Hin Hv. pose proof (a_idx _ _ A k l Hin) as Hlt.
    pose proof (m_tbr _ _ _ M). unfold loc_valid, abs_end in *. lia. }
  constructor.
  - intros c Hin. pose proof (c_claims _ _ _ C c Hin) as Hok.
    destruct c as [wr acc|u l o|wr o]; cbn [claim_ok] in *.
    + destruct Hok as (cur & reg & Hb & H1 & H2 & H3 & H4 & H5).
      destruct (CL (CW wr acc) (wr_uid wr) cur reg Hin) as (cur' & Hb' & Hle & Hd); [|exact Hb|].
      { cbn [cref]. rewrite Nat.eqb_refl. discriminate. }
      exists cur', reg. repeat split; try assumption; try lia.
      * rewrite Hd. exact H3.
      * pose proof (m_end _ _ _ M). lia.
      * intros Hr. rewrite (m_uid_at _ _ _ M); [|exact Hr|exact H4].
        apply H5. pose proof (m_rel _ _ _ M). lia.
    + destruct Hok as (cur & reg & Hb & H1 & H2).
      destruct (CL (CR u l o) u cur reg Hin) as (cur' & Hb' & Hle & Hd); [|exact Hb|].
      { cbn [cref]. rewrite Nat.eqb_refl. discriminate. }
      exists cur', reg. repeat split; try assumption; try lia. rewrite Hd. exact H2.
    + destruct Hok as (H0 & H1 & H2 & H3). split; [|split; [|split]].
      * pose proof (m_next _ _ _ M). lia.
      * pose proof (m_end _ _ _ M). lia.
      * intros cur' reg Hb'. apply binfo_in in Hb'. destruct Hb' as (b' & _ & Hin' & Hu' & Hc' & Hr').
        destruct (m_back _ _ _ M b' Hin') as (b & Hinb & Hub & Hrb & Hcb).
        { rewrite Hu'. exact H0. }
        assert (Hle : wr_off wr + wr_size wr <= b_cursor b).
        { apply (H2 (b_cursor b) (b_region b)). rewrite <- Hu', <- Hub.
          apply binfo_live; [apply (a_uid_nd _ _ A)|exact Hinb]. }
        lia.
      * intros Ht. pose proof (m_tbr _ _ _ M) as Htt.
        destruct H3 as (cur & reg & Hu & Hb & Hd); [lia|].
        destruct (AT _ _ _ _ Ht Hu Hb) as (Hu' & cur' & Hb' & Hle & Hdev).
        exists cur', reg. repeat split; try assumption. rewrite Hdev. exact Hd.
  - intros k l Hin Hv. rewrite (m_idx _ _ _ M) in Hin.
    destruct (LV k l Hin Hv) as (Hv0 & Ht).
    destruct (c_idx _ _ _ C k l Hin Hv0) as (uid & cur & reg & Hu & Hb & H1 & H2).
    destruct (AT _ _ _ _ Ht Hu Hb) as (Hu' & cur' & Hb' & Hle & Hdev).
    exists uid, cur', reg. repeat split; try assumption; try lia. rewrite Hdev. exact H2.
  - apply (c_sep _ _ _ C).
  - intros wr acc k l Hin Hix Hv Hu. rewrite (m_idx _ _ _ M) in Hix.
    destruct (LV k l Hix Hv) as (Hv0 & Ht).
    apply (c_sep_idx _ _ _ C wr acc k l Hin Hix Hv0).
    rewrite <- Hu. symmetry. apply (m_uid_at _ _ _ M); [lia|apply (a_idx _ _ A k l Hix)].
Qed.

(** BlockList.PopFront, with the quarantine mark advanced to at least the new
    release count *)
Lemma pop_core s b rest s' :
  DInv w cl s -> s_blocks s = b :: rest ->
  s_blocks s' = rest ->
  s_zombies s' = (if Nat.leb (b_use b) 1 then s_zombies s
                  else s_zombies s ++ [set_use b (pred (b_use b))]) ->
  s_free s' = (if Nat.leb (b_use b) 1
               then (if in_memory (w_cfg w) then s_free s else s_free s ++ [b_region b])
               else s_free s) ->
  s_next_region s' = s_next_region s -> s_next_uid s' = s_next_uid s -> s_dev s' = s_dev s ->
  s_released s' = s_released s + 1 -> s_tbr s' = N.max (s_tbr s) (s_released s + 1) ->
  s_index s' = s_index s -> len_ok s' ->
  DInv w cl s'.
Proof.
  intros [A U C] Hb Hb' Hz Hf Hnr Hnu Hd Hr Ht Hi Ln'.
  set (c := w_cfg w) in *.
  set (b' := set_use b (pred (b_use b))) in *.
  assert (L0 : live s = b :: rest ++ s_zombies s) by (unfold live; rewrite Hb; reflexivity).
  assert (L1 : live s' = (rest ++ s_zombies s) ++ (if Nat.leb (b_use b) 1 then [] else [b'])).
  { unfold live. rewrite Hb', Hz. destruct (Nat.leb (b_use b) 1).
    - rewrite app_nil_r. reflexivity.
    - rewrite app_assoc. reflexivity. }
  assert (E0 : abs_end s' = abs_end s).
  { unfold abs_end. rewrite Hb, Hb', Hr. cbn [length]. lia. }
  assert (Lsub : forall x, In x (live s') ->
            exists y, In y (live s) /\ b_uid y = b_uid x /\ b_region y = b_region x /\
                      b_cursor y = b_cursor x).
  { intros x Hx. rewrite L1 in Hx. apply in_app_or in Hx. destruct Hx as [Hx|Hx].
    - exists x. rewrite L0. split; [right; exact Hx|auto].
    - destruct (Nat.leb (b_use b) 1); [destruct Hx|]. destruct Hx as [<-|[]].
      exists b. rewrite L0. split; [left; reflexivity|auto]. }
  assert (Lfwd : forall y, In y (rest ++ s_zombies s) -> In y (live s')).
  { intros y Hy. rewrite L1. apply in_or_app. left. exact Hy. }
  assert (Lb : Nat.leb (b_use b) 1 = false -> In b' (live s')).
  { intros E. rewrite L1, E. apply in_or_app. right. left. reflexivity. }
  assert (Ub : (1 + nrefs (b_uid b) cl <= b_use b)%nat).
  { apply (u_blocks _ _ U). rewrite Hb. left. reflexivity. }
  assert (A' : AInv c s').
  { constructor.
    - exact Ln'.
    - destruct (a_rel _ _ A) as [R1 R2]. rewrite E0, Hr, Ht. unfold abs_end in *.
      rewrite Hb in *. cbn [length] in *. lia.
    - pose proof (a_uid_nd _ _ A) as ND. rewrite L0 in ND. cbn [map] in ND.
      rewrite L1, map_app. destruct (Nat.leb (b_use b) 1); cbn [map].
      + rewrite app_nil_r. inversion ND; assumption.
      + apply (Permutation_NoDup (Permutation_cons_append _ _)). exact ND.
    - intros x Hx. destruct (Lsub x Hx) as (y & Hy & e1 & _). rewrite Hnu, <- e1.
      apply (a_uid_lt _ _ A). exact Hy.
    - pose proof (a_reg_nd _ _ A) as ND. rewrite L0 in ND. cbn [map app] in ND.
      rewrite L1, Hf, map_app. destruct (Nat.leb (b_use b) 1); cbn [map].
      + rewrite app_nil_r. destruct (in_memory c).
        * inversion ND; assumption.
        * rewrite app_assoc. apply (Permutation_NoDup (Permutation_cons_append _ _)). exact ND.
      + refine (Permutation_NoDup _ ND).
        change (b_region b :: map b_region (rest ++ s_zombies s) ++ s_free s)
          with ((b_region b :: map b_region (rest ++ s_zombies s)) ++ s_free s).
        apply Permutation_app_tail. apply Permutation_cons_append.
    - intros Him x Hx. destruct (Lsub x Hx) as (y & Hy & _ & e2 & _). rewrite Hnr, <- e2.
      apply (a_reg_lt _ _ A Him). exact Hy.
    - intros Him. rewrite Hf, (a_free_im _ _ A Him), Him. destruct (Nat.leb _ _); reflexivity.
    - intros x Hx. destruct (Lsub x Hx) as (y & Hy & _ & _ & e3). rewrite <- e3.
      apply (a_cur _ _ A). exact Hy.
    - intros x Hx. destruct (Lsub x Hx) as (y & Hy & _ & e2 & _). rewrite Hd, <- e2.
      apply (a_dev_live _ _ A). exact Hy.
    - intros r Hin. rewrite Hd.
      assert (In r (s_free s) \/ r = b_region b) as [H|H].
      { rewrite Hf in Hin. destruct (Nat.leb _ _); [destruct (in_memory c)|]; auto.
        apply in_app_or in Hin. destruct Hin as [Hin|[<-|[]]]; auto. }
      + apply (a_dev_free _ _ A). exact H.
      + right. subst r. apply (a_dev_live _ _ A). rewrite L0. left. reflexivity.
    - intros k l Hin. rewrite E0. rewrite Hi in Hin. apply (a_idx _ _ A k l Hin). }
  assert (U' : UInv cl s').
  { constructor.
    - intros x Hx. rewrite Hb' in Hx. apply (u_blocks _ _ U). rewrite Hb. right. exact Hx.
    - intros z Hz'. rewrite Hz in Hz'. destruct (Nat.leb (b_use b) 1) eqn:E.
      + apply (u_zombies _ _ U). exact Hz'.
      + apply in_app_or in Hz'. destruct Hz' as [Hz'|[<-|[]]].
        * apply (u_zombies _ _ U). exact Hz'.
        * unfold b'. cbn [set_use b_uid b_use]. lia. }
  assert (M : Mono cl s s').
  { constructor.
    - exact Hi.
    - rewrite Hnu. apply Nat.le_refl.
    - rewrite Hr. apply N.le_add_r.
    - rewrite Ht. apply N.le_max_l.
    - rewrite E0. apply N.le_refl.
    - intros abs H1 H2. unfold uid_at. rewrite Hr, Hb, Hb'.
      replace (abs <? s_released s + 1) with false by lia.
      replace (abs <? s_released s) with false by lia.
      replace (N.to_nat (abs - s_released s)) with (S (N.to_nat (abs - (s_released s + 1)))) by lia.
      reflexivity.
    - intros x Hx _. destruct (Lsub x Hx) as (y & Hy & e1 & e2 & e3).
      exists y. repeat split; auto. lia.
    - intros. rewrite Hd. reflexivity.
    - intros y Hy Hn. rewrite L0 in Hy. destruct Hy as [<-|Hy].
      + destruct (Nat.leb (b_use b) 1) eqn:E.
        * exfalso. lia.
        * exists b'. split; [apply Lb; reflexivity|]. unfold b'. cbn [set_use b_uid b_region b_cursor].
          repeat split; lia.
      + exists y. split; [apply Lfwd; exact Hy|]. repeat split; lia.
    - intros y n Hn Hle. rewrite Hb in Hn. destruct n as [|n]; [lia|].
      cbn [nth_error] in Hn. apply nth_error_In in Hn.
      exists y. split; [apply Lfwd; apply in_or_app; left; exact Hn|]. repeat split; lia. }
  constructor; [exact A'|exact U'|]. apply (CInv_mono s s' A A' M C).
Qed.

Lemma pop_front_fields c s b rest :
  s_blocks s = b :: rest ->
  s_blocks (pop_front c s) = rest /\
  s_zombies (pop_front c s) = (if Nat.leb (b_use b) 1 then s_zombies s
                               else s_zombies s ++ [set_use b (pred (b_use b))]) /\
  s_free (pop_front c s) = (if Nat.leb (b_use b) 1
                            then (if in_memory c then s_free s else s_free s ++ [b_region b])
                            else s_free s) /\
  s_next_region (pop_front c s) = s_next_region s /\
  s_next_uid (pop_front c s) = s_next_uid s /\
  s_dev (pop_front c s) = s_dev s /\
  s_released (pop_front c s) = s_released s + 1 /\
  s_tbr (pop_front c s) = s_tbr s /\
  s_index (pop_front c s) = s_index s /\
  s_old (pop_front c s) = s_old s /\ s_cur (pop_front c s) = s_cur s /\
  s_new (pop_front c s) = s_new s.
Proof.
  intros H. unfold pop_front. rewrite H.
  destruct (Nat.leb (b_use b) 1); [destruct (in_memory c)|]; repeat split; reflexivity.
Qed.

Lemma pop_front_counts c s :
  s_old (pop_front c s) = s_old s /\ s_cur (pop_front c s) = s_cur s /\ s_new (pop_front c s) = s_new s.
Proof.
  unfold pop_front. destruct (s_blocks s); [repeat split|].
  destruct (Nat.leb (b_use b) 1); [destruct (in_memory c)|]; repeat split.
Qed.

(** PopFront with the quarantine mark moved along *)
Definition pop_max (c : config) (s : state) : state :=
  upd_rel (pop_front c s) (s_released s + 1) (N.max (s_tbr s) (s_released s + 1)).

Lemma pop_max_inv s s' :
  DInv w cl s -> s_blocks s <> [] -> core9 (pop_max (w_cfg w) s) s' ->
  (s_old s' + s_cur s' + s_new s' = pred (s_old s + s_cur s + s_new s))%nat ->
  DInv w cl s'.
Proof.
  intros D Hne (e1 & e2 & e3 & e4 & e5 & e6 & e7 & e8 & e9) L.
  pose proof (a_len _ _ (d_a _ _ _ D)) as Ln.
  destruct (s_blocks s) as [|b rest] eqn:Hb; [congruence|].
  destruct (pop_front_fields (w_cfg w) s b rest Hb)
    as (f1 & f2 & f3 & f4 & f5 & f6 & f7 & f8 & f9 & _).
  unfold pop_max in *. cbn [s_blocks s_zombies s_free s_next_region s_next_uid s_dev s_released
                             s_tbr s_index upd_rel] in *.
  apply (pop_core s b rest s' D Hb); try congruence.
  unfold len_ok. rewrite e1, f1. cbn [length] in Ln. lia.
Qed.

(** NewBlock + BlockList.PushBack *)

Lemma push_core s s' r :
  DInv w cl s ->
  s_blocks s' = s_blocks s ++ [ {| b_uid := s_next_uid s; b_region := r; b_cursor := 0; b_use := 1 |} ] ->
  s_zombies s' = s_zombies s -> s_next_uid s' = S (s_next_uid s) ->
  s_released s' = s_released s -> s_tbr s' = s_tbr s -> s_index s' = s_index s ->
  (in_memory (w_cfg w) = true /\ r = s_next_region s /\ s_next_region s' = S r /\
   s_free s' = s_free s /\ s_dev s' = dev_set (s_dev s) r (zeros (c_bs (w_cfg w)))
   \/
   in_memory (w_cfg w) = false /\ s_free s = r :: s_free s' /\
   s_dev s' = match dev_get (s_dev s) r with
              | [] => dev_set (s_dev s) r (zeros (c_bs (w_cfg w)))
              | _ => s_dev s
              end) ->
  len_ok s' ->
  DInv w cl s'.
Proof.
  intros [A U C] Hb Hz Hnu Hr Ht Hi Hcase Ln'.
  set (c := w_cfg w) in *.
  set (nb := {| b_uid := s_next_uid s; b_region := r; b_cursor := 0; b_use := 1 |}) in *.
  assert (P1 : Permutation (nb :: live s) (live s')).
  { unfold live. rewrite Hb, Hz, <- app_assoc. cbn [app]. apply Permutation_middle. }
  assert (In1 : forall x, In x (live s') <-> x = nb \/ In x (live s)).
  { intros x. split.
    - intros H. apply (Permutation_in _ (Permutation_sym P1)) in H. destruct H; auto.
    - intros H. apply (Permutation_in _ P1). destruct H; [left|right]; auto. }
  assert (E0 : abs_end s' = abs_end s + 1).
  { unfold abs_end. rewrite Hb, Hr, app_length. cbn [length]. lia. }
  assert (F1 : forall b, In b (live s) -> b_region b <> r).
  { intros b Hin. destruct Hcase as [(Him & -> & _)|(Him & Hf & _)].
    - pose proof (a_reg_lt _ _ A Him b Hin). lia.
    - intros E. pose proof (a_reg_nd _ _ A) as ND. rewrite Hf in ND.
      apply (NoDup_app_disj _ _ r ND); [|left; reflexivity].
      rewrite <- E. apply in_map. exact Hin. }
  assert (F2 : NoDup (map b_region (live s') ++ s_free s')).
  { pose proof (a_reg_nd _ _ A) as ND.
    refine (Permutation_NoDup (Permutation_app_tail _ (Permutation_map b_region P1)) _).
    cbn [map app nb b_region].
    destruct Hcase as [(Him & _ & _ & Hf & _)|(Him & Hf & _)].
    - rewrite Hf. constructor; [|exact ND].
      intros Hin. apply in_app_or in Hin. destruct Hin as [Hin|Hin].
      + apply in_map_iff in Hin. destruct Hin as (b & e & Hin). exact (F1 b Hin e).
      + rewrite (a_free_im _ _ A Him) in Hin. destruct Hin.
    - rewrite Hf in ND. refine (Permutation_NoDup _ ND). apply Permutation_sym, Permutation_middle. }
  assert (F3 : forall r', r' <> r -> dev_get (s_dev s') r' = dev_get (s_dev s) r').
  { intros r' Hne. assert (Nat.eqb r' r = false) as E by (apply Nat.eqb_neq; exact Hne).
    destruct Hcase as [(_ & _ & _ & _ & Hd)|(_ & _ & Hd)]; rewrite Hd.
    - rewrite dev_get_set, E. reflexivity.
    - destruct (dev_get (s_dev s) r); [|reflexivity]. rewrite dev_get_set, E. reflexivity. }
  assert (F4 : length (dev_get (s_dev s') r) = N.to_nat (c_bs c)).
  { destruct Hcase as [(_ & _ & _ & _ & Hd)|(_ & Hf & Hd)]; rewrite Hd.
    - rewrite dev_get_set, Nat.eqb_refl. apply zeros_length.
    - destruct (dev_get (s_dev s) r) as [|x t] eqn:E.
      + rewrite dev_get_set, Nat.eqb_refl. apply zeros_length.
      + destruct (a_dev_free _ _ A r) as [H|H].
        * rewrite Hf. left. reflexivity.
        * rewrite E in H. discriminate.
        * exact H. }
  assert (F5 : forall r', In r' (s_free s') -> In r' (s_free s) /\ r' <> r).
  { intros r' Hin. destruct Hcase as [(Him & _ & _ & Hf & _)|(Him & Hf & _)].
    - rewrite Hf, (a_free_im _ _ A Him) in Hin. destruct Hin.
    - split; [rewrite Hf; right; exact Hin|].
      pose proof (NoDup_app_r _ _ (a_reg_nd _ _ A)) as ND. rewrite Hf in ND.
      inversion ND as [|u v Hn _]; subst. intros ->. exact (Hn Hin). }
  assert (Hfresh : forall b, In b (live s) -> b_uid b <> s_next_uid s).
  { intros b Hin. pose proof (a_uid_lt _ _ A b Hin). lia. }
  assert (A' : AInv c s').
  { constructor.
    - exact Ln'.
    - destruct (a_rel _ _ A). rewrite E0, Hr, Ht. lia.
    - refine (Permutation_NoDup (Permutation_map b_uid P1) _). cbn [map nb b_uid].
      constructor; [|apply (a_uid_nd _ _ A)].
      intros Hin. apply in_map_iff in Hin. destruct Hin as (b & e & Hin). exact (Hfresh b Hin e).
    - intros x Hx. apply In1 in Hx. rewrite Hnu. destruct Hx as [->|Hx].
      + cbn [nb b_uid]. lia.
      + pose proof (a_uid_lt _ _ A x Hx). lia.
    - exact F2.
    - intros Him x Hx. apply In1 in Hx.
      destruct Hcase as [(_ & Hrr & Hnr & _)|(Him' & _)]; [|congruence].
      rewrite Hnr. destruct Hx as [->|Hx].
      + cbn [nb b_region]. lia.
      + pose proof (a_reg_lt _ _ A Him x Hx). lia.
    - intros Him. destruct Hcase as [(_ & _ & _ & Hf & _)|(Him' & _)]; [|congruence].
      rewrite Hf. apply (a_free_im _ _ A Him).
    - intros x Hx. apply In1 in Hx. destruct Hx as [->|Hx].
      + cbn [nb b_cursor]. lia.
      + apply (a_cur _ _ A x Hx).
    - intros x Hx. apply In1 in Hx. destruct Hx as [->|Hx].
      + cbn [nb b_region]. exact F4.
      + rewrite (F3 _ (F1 x Hx)). apply (a_dev_live _ _ A x Hx).
    - intros r' Hin. destruct (F5 r' Hin) as [Hin0 Hne]. rewrite (F3 _ Hne).
      apply (a_dev_free _ _ A r' Hin0).
    - intros k l Hin. rewrite Hi in Hin. pose proof (a_idx _ _ A k l Hin). lia. }
  assert (U' : UInv cl s').
  { constructor.
    - intros x Hx. rewrite Hb in Hx. apply in_app_or in Hx. destruct Hx as [Hx|[<-|[]]].
      + apply (u_blocks _ _ U x Hx).
      + cbn [nb b_uid b_use].
        rewrite (nrefs_not_live w cl s (s_next_uid s) (c_claims _ _ _ C) Hfresh). lia.
    - intros z Hz'. rewrite Hz in Hz'. apply (u_zombies _ _ U z Hz'). }
  assert (M : Mono cl s s').
  { constructor.
    - exact Hi.
    - rewrite Hnu. apply Nat.le_succ_diag_r.
    - rewrite Hr. apply N.le_refl.
    - rewrite Ht. apply N.le_refl.
    - rewrite E0. apply N.le_add_r.
    - intros abs H1 H2. unfold uid_at. rewrite Hr, Hb. unfold abs_end in H2.
      destruct (abs <? s_released s); [reflexivity|].
      rewrite nth_error_app1 by lia. reflexivity.
    - intros x Hx Hlt. apply In1 in Hx. destruct Hx as [->|Hx].
      + cbn [nb b_uid] in Hlt. lia.
      + exists x. repeat split; auto. lia.
    - intros b Hin. apply F3. apply F1. exact Hin.
    - intros y Hy _. exists y. split; [apply In1; right; exact Hy|]. repeat split; lia.
    - intros y n Hn _. exists y. split; [|repeat split; lia].
      apply In1. right. unfold live. apply in_or_app. left. eapply nth_error_In. exact Hn. }
  constructor; [exact A'|exact U'|]. apply (CInv_mono s s' A A' M C).
Qed.

Lemma push_back_fields c s s1 :
  push_back c s = Some s1 ->
  (exists r,
     s_blocks s1 = s_blocks s ++ [ {| b_uid := s_next_uid s; b_region := r; b_cursor := 0; b_use := 1 |} ] /\
     (in_memory c = true /\ r = s_next_region s /\ s_next_region s1 = S r /\
      s_free s1 = s_free s /\ s_dev s1 = dev_set (s_dev s) r (zeros (c_bs c))
      \/
      in_memory c = false /\ s_free s = r :: s_free s1 /\
      s_dev s1 = match dev_get (s_dev s) r with
                 | [] => dev_set (s_dev s) r (zeros (c_bs c))
                 | _ => s_dev s
                 end)) /\
  s_zombies s1 = s_zombies s /\ s_next_uid s1 = S (s_next_uid s) /\
  s_released s1 = s_released s /\ s_tbr s1 = s_tbr s /\ s_index s1 = s_index s /\
  s_old s1 = s_old s /\ s_cur s1 = s_cur s /\ s_new s1 = s_new s.
Proof.
  unfold push_back, new_block. destruct (in_memory c) eqn:Him.
  - intros H. injection H as <-.
    cbn [s_blocks s_zombies s_free s_next_region s_next_uid s_dev s_released s_tbr s_index
         s_old s_cur s_new upd_blocks].
    split; [|repeat split; reflexivity].
    eexists. split; [reflexivity|]. left. repeat split; reflexivity.
  - destruct (s_free s) as [|r rest] eqn:Hf; [discriminate|].
    intros H. injection H as <-.
    cbn [s_blocks s_zombies s_free s_next_region s_next_uid s_dev s_released s_tbr s_index
         s_old s_cur s_new upd_blocks].
    split; [|repeat split; reflexivity].
    eexists. split; [reflexivity|]. right. repeat split; reflexivity.
Qed.

Lemma push_inv s s1 s' :
  DInv w cl s -> push_back (w_cfg w) s = Some s1 -> core9 s1 s' ->
  (s_old s' + s_cur s' + s_new s' = S (s_old s + s_cur s + s_new s))%nat ->
  DInv w cl s' /\ s_blocks s' <> [].
Proof.
  intros D Hp (e1 & e2 & e3 & e4 & e5 & e6 & e7 & e8 & e9) L.
  pose proof (a_len _ _ (d_a _ _ _ D)) as Ln.
  destruct (push_back_fields _ _ _ Hp)
    as ((r & f1 & Hcase) & f2 & f3 & f4 & f5 & f6 & _).
  split.
  - apply (push_core s s' r D); try congruence.
    unfold len_ok. rewrite e1, f1, app_length. cbn [length]. lia.
  - rewrite e1, f1. destruct (s_blocks s); discriminate.
Qed.

(** the allocation inside the chosen block: cursor and use count of one listed
    block advance, a new writer claim is added *)

Lemma put_core s idx b size :
  let f := fun x => set_use (set_cursor x (b_cursor x + size)) (S (b_use x)) in
  let wr := {| wr_uid := b_uid b; wr_abs := s_released s + N.of_nat idx;
               wr_off := b_cursor b; wr_size := size |} in
  DInv w cl s -> nth_error (s_blocks s) idx = Some b -> b_cursor b + size <= c_bs (w_cfg w) ->
  DInv w (CW wr [] :: cl) (upd_blocks s (map_uid f (b_uid b) (s_blocks s)) (s_zombies s)).
Proof.
  intros f wr [A U C] Hn Hsz.
  set (g := fun x => if Nat.eqb (b_uid x) (b_uid b) then f x else x).
  set (s' := upd_blocks s (map_uid f (b_uid b) (s_blocks s)) (s_zombies s)).
  (* [s'] differs from [s] in [s_blocks] only: what [A] says of the other fields holds of [s'] by conversion *)
  pose proof (a_uid_nd _ _ A) as ND.
  pose proof ND as ND2. unfold live in ND2. rewrite map_app in ND2.
  pose proof (NoDup_app_l _ _ ND2) as NDb.
  assert (Hbin : In b (s_blocks s)) by (eapply nth_error_In; exact Hn).
  assert (Hbl : In b (live s)) by (unfold live; apply in_or_app; left; exact Hbin).
  assert (Hb' : s_blocks s' = map g (s_blocks s)) by (apply map_uid_map; exact NDb).
  assert (Ln' : len_ok s').
  { unfold len_ok, s'. cbn [s_blocks s_old s_cur s_new upd_blocks]. rewrite map_uid_length. apply (a_len _ _ A). }
  assert (Hzn : forall z, In z (s_zombies s) -> Nat.eqb (b_uid z) (b_uid b) = false).
  { intros z Hzin. apply Nat.eqb_neq. intros E.
    apply (NoDup_app_disj _ _ (b_uid b) ND2); [apply in_map; exact Hbin|].
    rewrite <- E. apply in_map. exact Hzin. }
  assert (Hzg : map g (s_zombies s) = s_zombies s).
  { rewrite <- (map_id (s_zombies s)) at 2. apply map_ext_in. intros z Hzin.
    unfold g. rewrite (Hzn z Hzin). reflexivity. }
  assert (L1 : live s' = map g (live s)).
  { unfold live. rewrite Hb', map_app, Hzg. reflexivity. }
  assert (Gu : forall x, b_uid (g x) = b_uid x).
  { intros x. unfold g, f. destruct (Nat.eqb (b_uid x) (b_uid b)); reflexivity. }
  assert (Gr : forall x, b_region (g x) = b_region x).
  { intros x. unfold g, f. destruct (Nat.eqb (b_uid x) (b_uid b)); reflexivity. }
  assert (Gc : forall x, b_cursor x <= b_cursor (g x)).
  { intros x. unfold g, f. destruct (Nat.eqb (b_uid x) (b_uid b));
      cbn [set_use set_cursor b_cursor]; lia. }
  assert (Gb : forall x, In x (live s) -> b_uid x = b_uid b -> x = b).
  { intros x Hx E. apply (NoDup_map_inj b_uid (live s)); assumption. }
  assert (Egb : g b = f b) by (unfold g; rewrite Nat.eqb_refl; reflexivity).
  assert (E0 : abs_end s' = abs_end s).
  { unfold abs_end. rewrite Hb', map_length. reflexivity. }
  assert (Lin : forall x, In x (live s') -> exists y, In y (live s) /\ x = g y).
  { intros x Hx. rewrite L1 in Hx. apply in_map_iff in Hx. destruct Hx as (y & e & Hy).
    exists y. auto. }
  assert (A' : AInv (w_cfg w) s').
  { constructor.
    - exact Ln'.
    - rewrite E0. apply (a_rel _ _ A).
    - rewrite L1, map_map, (map_ext _ b_uid Gu). exact ND.
    - intros x Hx. destruct (Lin x Hx) as (y & Hy & ->). rewrite Gu. apply (a_uid_lt _ _ A y Hy).
    - rewrite L1, map_map, (map_ext _ b_region Gr). apply (a_reg_nd _ _ A).
    - intros Him x Hx. destruct (Lin x Hx) as (y & Hy & ->). rewrite Gr.
      apply (a_reg_lt _ _ A Him y Hy).
    - apply (a_free_im _ _ A).
    - intros x Hx. destruct (Lin x Hx) as (y & Hy & ->). unfold g.
      destruct (Nat.eqb (b_uid y) (b_uid b)) eqn:E.
      + apply Nat.eqb_eq in E. rewrite (Gb y Hy E). unfold f.
        cbn [set_use set_cursor b_cursor]. exact Hsz.
      + apply (a_cur _ _ A y Hy).
    - intros x Hx. destruct (Lin x Hx) as (y & Hy & ->). rewrite Gr.
      apply (a_dev_live _ _ A y Hy).
    - apply (a_dev_free _ _ A).
    - rewrite E0. apply (a_idx _ _ A). }
  assert (U' : UInv (CW wr [] :: cl) s').
  { constructor.
    - intros x Hx. rewrite Hb' in Hx. apply in_map_iff in Hx. destruct Hx as (y & <- & Hy).
      rewrite nrefs_cons, Gu. cbn [cref wr wr_uid]. rewrite Nat.eqb_sym. unfold g.
      pose proof (u_blocks _ _ U y Hy).
      destruct (Nat.eqb (b_uid y) (b_uid b)); unfold f; cbn [set_use b_use]; lia.
    - intros z Hzin. rewrite nrefs_cons. cbn [cref wr wr_uid].
      rewrite Nat.eqb_sym, (Hzn z Hzin). apply (u_zombies _ _ U z Hzin). }
  assert (M : Mono cl s s').
  { constructor.
    - reflexivity.
    - apply Nat.le_refl.
    - apply N.le_refl.
    - apply N.le_refl.
    - rewrite E0. apply N.le_refl.
    - intros abs H1 H2. unfold uid_at. change (s_released s') with (s_released s). rewrite Hb', nth_error_map.
      destruct (abs <? s_released s); [reflexivity|].
      destruct (nth_error (s_blocks s) (N.to_nat (abs - s_released s))); cbn [option_map];
        rewrite ?Gu; reflexivity.
    - intros x Hx _. destruct (Lin x Hx) as (y & Hy & ->). exists y.
      rewrite Gu, Gr. repeat split; auto.
    - reflexivity.
    - intros y Hy _. exists (g y). split; [rewrite L1; apply in_map; exact Hy|]. auto.
    - intros y n Hny _. exists (g y). split; [|auto]. rewrite L1. apply in_map.
      unfold live. apply in_or_app. left. eapply nth_error_In. exact Hny. }
  pose proof (CInv_mono s s' A A' M C) as C1.
  assert (Bb : binfo s (b_uid b) = Some (b_cursor b, b_region b)) by (apply binfo_live; assumption).
  assert (Bb' : binfo s' (b_uid b) = Some (b_cursor b + size, b_region b)).
  { pose proof (binfo_live s' (g b) (a_uid_nd _ _ A')) as H. rewrite Gu, Gr in H.
    rewrite H; [|rewrite L1; apply in_map; exact Hbl].
    rewrite Egb. reflexivity. }
  assert (Hlv : forall l, loc_valid s' l = loc_valid s l).
  { intros l. unfold loc_valid. rewrite Hb', map_length. reflexivity. }
  constructor; [exact A'|exact U'|]. constructor.
  - intros c0 [<-|Hin]; [|apply (c_claims _ _ _ C1 c0 Hin)].
    cbn [claim_ok]. exists (b_cursor b + size), (b_region b).
    split; [exact Bb'|]. cbn [wr wr_uid wr_abs wr_off wr_size length].
    split; [lia|]. split; [lia|]. split; [apply slice_len0|].
    pose proof (nth_error_lt _ _ _ Hn) as Hlt.
    split; [rewrite E0; unfold abs_end; lia|].
    intros _. rewrite <- (Gu b). apply (uid_at_nth s' idx (g b)).
    rewrite Hb', nth_error_map, Hn. reflexivity.
  - apply (c_idx _ _ _ C1).
  - cbn [pairwise]. split; [|apply (c_sep _ _ _ C)].
    intros y Hy _ Huid. right.
    pose proof (c_claims _ _ _ C y Hy) as Hok.
    cbn [c_uid c_off c_size wr wr_uid wr_off wr_size] in *.
    destruct y as [wr0 acc|u l o|wr0 o]; cbn [claim_ok c_uid c_off c_size] in *.
    + destruct Hok as (cur & reg & Hbi & Hle & _). rewrite <- Huid, Bb in Hbi.
      inversion Hbi; subst. exact Hle.
    + destruct Hok as (cur & reg & Hbi & Hle & _). rewrite <- Huid, Bb in Hbi.
      inversion Hbi; subst. exact Hle.
    + destruct Hok as (_ & _ & H2 & _). apply (H2 (b_cursor b) (b_region b)).
      rewrite <- Huid. exact Bb.
  - intros wr0 acc k l [Heq|Hin] Hix Hv Hu; [|apply (c_sep_idx _ _ _ C1 wr0 acc k l Hin Hix Hv Hu)].
    inversion Heq; subst wr0 acc. cbn [wr wr_uid wr_off wr_size] in *. right.
    rewrite Hlv in Hv.
    pose proof (a_idx _ _ A k l Hix) as Hlt. destruct (a_rel _ _ A) as [R1 R2].
    assert (Hu0 : uid_at s (l_abs l) = Some (b_uid b)).
    { rewrite <- Hu. symmetry. apply (m_uid_at _ _ _ M); [|exact Hlt].
      change (s_released s <= l_abs l). unfold loc_valid in Hv. lia. }
    destruct (c_idx _ _ _ C k l Hix Hv) as (uid & cur & reg & Hu1 & Hbi & Hle & _).
    rewrite Hu0 in Hu1. inversion Hu1; subst uid. rewrite Bb in Hbi. inversion Hbi; subst.
    exact Hle.
Qed.

Ltac proj :=
  cbn [s_blocks s_zombies s_free s_next_region s_next_uid s_dev s_old s_cur s_new s_released
       s_tbr s_attempts s_aidx s_index s_threads s_pushbacks s_negs
       upd_blocks upd_free upd_dev upd_counts upd_rel upd_alloc upd_index upd_threads].

Lemma pop_lt_inv s s2 :
  DInv w cl s -> s_released s < s_tbr s -> core9 (pop_front (w_cfg w) s) s2 ->
  (s_old s2 + s_cur s2 + s_new s2 = pred (s_old s + s_cur s + s_new s))%nat ->
  DInv w cl s2.
Proof.
  intros D Hlt (e1 & e2 & e3 & e4 & e5 & e6 & e7 & e8 & e9) L.
  assert (Hne : s_blocks s <> []).
  { destruct (a_rel _ _ (d_a _ _ _ D)) as [_ H]. unfold abs_end in H. intros Hn.
    rewrite Hn in H. cbn [length] in H. lia. }
  apply (pop_max_inv s s2 D Hne); [|exact L].
  destruct (s_blocks s) as [|b rest] eqn:Hb; [congruence|].
  destruct (pop_front_fields (w_cfg w) s b rest Hb)
    as (f1 & f2 & f3 & f4 & f5 & f6 & f7 & f8 & f9 & _).
  unfold core9, pop_max. proj. repeat split; try assumption.
  - rewrite e7, f7. reflexivity.
  - rewrite e8, f8. lia.
Qed.

Lemma fbs_release_inv fuel : forall s,
  DInv w cl s -> DInv w cl (fbs_release (w_cfg w) fuel s).
Proof.
  induction fuel as [|f IH]; intros s D; cbn [fbs_release]; [exact D|].
  destruct (s_released s <? s_tbr s) eqn:E; [|exact D].
  assert (Hlt : s_released s < s_tbr s) by lia.
  destruct (pop_front_counts (w_cfg w) s) as (f10 & f11 & f12). rewrite f10, f11, f12.
  destruct (s_old s) as [|o] eqn:Eo; [destruct (s_cur s) as [|cu] eqn:Ec|];
    apply IH, (pop_lt_inv s _ D Hlt);
    unfold core9, reset_alloc; proj; repeat split; try reflexivity; lia.
Qed.

Lemma fbs_grow_inv fuel : forall s r s',
  DInv w cl s -> fbs_grow (w_cfg w) fuel s = (r, s') -> DInv w cl s'.
Proof.
  induction fuel as [|f IH]; intros s r s' D H; cbn [fbs_grow] in H.
  - inversion H; subst. exact D.
  - destruct (grow_new (w_cfg w) (s_cur s) (s_new s)); [|inversion H; subst; exact D].
    destruct (push_back (w_cfg w) s) as [s1|] eqn:Hp; [|inversion H; subst; exact D].
    destruct (push_back_fields _ _ _ Hp) as (_ & _ & _ & _ & _ & _ & g7 & g8 & g9).
    set (s2 := upd_counts s1 (s_old s1) (s_cur s1) (S (s_new s1))) in H.
    destruct (push_inv s s1 s2 D Hp) as [D2 _].
    { repeat split. }
    { unfold s2. proj. lia. }
    exact (IH s2 r s' D2 H).
Qed.

Lemma fbs_rotate_inv size fuel : forall s r s',
  DInv w cl s -> fbs_rotate (w_cfg w) fuel size s = (r, s') -> DInv w cl s'.
Proof.
  induction fuel as [|f IH]; intros s r s' D H; cbn [fbs_rotate] in H.
  - inversion H; subst. exact D.
  - destruct (has_space (w_cfg w) s (s_old s + s_cur s) size); [inversion H; subst; exact D|].
    pose proof (a_len _ _ (d_a _ _ _ D)) as Ln.
    destruct (Nat.ltb (desired_new (w_cfg w)) (s_new s)) eqn:E1.
    + set (s2 := reset_alloc _) in H. apply (IH s2 r s'); [|exact H].
      apply (DInv_ext w cl s s2); [| |exact D].
      * repeat split.
      * unfold len_ok, s2, reset_alloc. proj. lia.
    + destruct (push_back (w_cfg w) s) as [s1|] eqn:Hp; [|inversion H; subst; exact D].
      destruct (push_back_fields _ _ _ Hp) as (_ & _ & _ & _ & _ & _ & g7 & g8 & g9).
      destruct (grow_cur (w_cfg w) (s_cur s1)).
      * set (s2 := reset_alloc _) in H. apply (IH s2 r s'); [|exact H].
        apply (push_inv s s1 s2 D Hp).
        -- repeat split.
        -- unfold s2, reset_alloc. proj. lia.
      * cbn [s_old upd_counts] in H.
        set (s3 := upd_counts s1 (S (s_old s1)) (s_cur s1) (s_new s1)) in H.
        destruct (push_inv s s1 s3 D Hp) as [D3 Hne3].
        { repeat split. }
        { unfold s3. proj. lia. }
        destruct (Nat.ltb (c_old (w_cfg w)) (S (s_old s1))).
        -- set (s2 := reset_alloc _) in H. apply (IH s2 r s'); [|exact H].
           destruct (s_blocks s3) as [|b rest] eqn:Hb; [congruence|].
           destruct (pop_front_fields (w_cfg w) s3 b rest Hb)
             as (_ & _ & _ & _ & _ & _ & f7 & f8 & _ & f10 & f11 & f12).
           apply (pop_max_inv s3 s2 D3); [rewrite Hb; discriminate| |].
           ++ unfold core9, pop_max, s2, reset_alloc. proj. repeat split; try reflexivity.
              ** rewrite f7. reflexivity.
              ** rewrite f7, f8. reflexivity.
           ++ unfold s2, reset_alloc. proj. rewrite f10, f11, f12. unfold s3. proj. lia.
        -- set (s2 := reset_alloc s3) in H. apply (IH s2 r s'); [|exact H].
           apply (DInv_ext w cl s3 s2); [| |exact D3].
           ++ repeat split.
           ++ pose proof (a_len _ _ (d_a _ _ _ D3)) as L3.
              unfold len_ok, s2, reset_alloc. proj. exact L3.
Qed.

Lemma fbs_pick_inv c size fuel : forall s idx s',
  fbs_pick c fuel size s = Some (idx, s') ->
  core9 s s' /\ s_old s' = s_old s /\ s_cur s' = s_cur s /\ s_new s' = s_new s /\
  has_space c s' idx size = true.
Proof.
  induction fuel as [|f IH]; intros s idx s' H; cbn [fbs_pick] in H; [discriminate|].
  (* [upd_alloc] changes no field the conclusion mentions: the induction hypothesis fits as it is *)
  destruct (s_attempts s) as [|a]; [exact (IH _ _ _ H)|].
  destruct (s_aidx s) as [i|]; [|exact (IH _ _ _ H)].
  destruct (has_space c s (s_old s + s_cur s + i) size) eqn:E; [|exact (IH _ _ _ H)].
  inversion H; subst; clear H.
  unfold core9. proj. repeat split; try reflexivity. exact E.
Qed.

Lemma fbws_inv s size r s' :
  DInv w cl s -> find_block_with_space (w_cfg w) s size = (r, s') ->
  DInv w cl s' /\
  match r with
  | Ok idx => has_space (w_cfg w) s' idx size = true
  | Err _ => True
  end.
Proof.
  intros D H. unfold find_block_with_space in H.
  destruct (c_bs (w_cfg w) <? size); [inversion H; subst; split; [exact D|exact I]|].
  pose proof (fbs_release_inv (S (length (s_blocks s))) s D) as D1.
  set (s1 := fbs_release (w_cfg w) (S (length (s_blocks s))) s) in *.
  destruct (fbs_grow (w_cfg w) (S (c_cur (w_cfg w) + c_new (w_cfg w))) s1) as [r2 s2] eqn:E2.
  pose proof (fbs_grow_inv _ _ _ _ D1 E2) as D2.
  destruct r2; [|inversion H; subst; split; [exact D2|exact I]].
  destruct (fbs_rotate (w_cfg w) (fuel_of s2) size s2) as [r3 s3] eqn:E3.
  pose proof (fbs_rotate_inv size _ _ _ _ D2 E3) as D3.
  destruct r3; [|inversion H; subst; split; [exact D3|exact I]].
  destruct (fbs_pick (w_cfg w) (S (S (s_new s3)) * 2) size s3) as [[idx s4]|] eqn:E4;
    [|inversion H; subst; split; [exact D3|exact I]].
  inversion H; subst; clear H.
  destruct (fbs_pick_inv _ _ _ _ _ _ E4) as (Hc & h1 & h2 & h3 & Hs).
  split; [|exact Hs].
  apply (DInv_ext w cl s3 s' Hc); [|exact D3].
  pose proof (a_len _ _ (d_a _ _ _ D3)) as L3. destruct Hc as (e1 & _).
  unfold len_ok. rewrite e1, h1, h2, h3. exact L3.
Qed.

End Alloc.

(** LocationBlobMap.Put *)
Theorem ocn_put_inv : forall w cl s size r s',
  DInv w cl s -> ocn_put (w_cfg w) s size = (r, s') ->
  frame_tin s s' /\
  match r with
  | Err _ => DInv w cl s'
  | Ok wr => DInv w (CW wr [] :: cl) s' /\ wr_size wr = size
  end.
Proof.
  intros w cl s size r s' D H. split; [exact (proj1 (ocn_put_frame _ _ _ _ _ H))|].
  unfold ocn_put in H.
  destruct (find_block_with_space (w_cfg w) s size) as [r0 s0] eqn:E.
  destruct (fbws_inv w cl s size r0 s0 D E) as (D0 & Hs).
  destruct r0 as [idx|e]; [|inversion H; subst; assumption].
  destruct (nth_error (s_blocks s0) idx) as [b|] eqn:En; [|inversion H; subst; assumption].
  inversion H; subst; clear H.
  split; [|reflexivity]. apply put_core; [exact D0|exact En|].
  unfold has_space in Hs. rewrite En in Hs.
  assert (Hc : b_cursor b <= c_bs (w_cfg w)).
  { apply (a_cur _ _ (d_a _ _ _ D0)). unfold live. apply in_or_app. left.
    eapply nth_error_In. exact En. }
  lia.
Qed.
