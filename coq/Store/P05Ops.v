(** C05: specifications of the read / existence-check operations:
    where a touch places the object, and that the operation only moves the
    counters by atoms, only adds index entries and keeps the index
    invariants. *)
From Coq Require Import List ZArith Bool Lia.
From Coq Require Import ZifyBool.
From BBS Require Import Store.Model Store.P05Cnt Store.P05Frame Store.P05WInv Store.P05WEnd.
Import ListNotations.
Open Scope N_scope.

Definition frx (c : config) (s s' : state) : Prop :=
  creach c (proj s) (proj s') /\ incl (s_index s) (s_index s') /\ s_threads s' = s_threads s.

Lemma frx_refl c s : frx c s s.
Proof. split; [apply creach_refl|split; [apply incl_refl|reflexivity]]. Qed.
Lemma frx_trans c a b d : frx c a b -> frx c b d -> frx c a d.
Proof.
  intros (A1 & A2 & A3) (B1 & B2 & B3). split; [eapply creach_trans; eauto|].
  split; [eapply incl_tran; eauto|congruence].
Qed.
Lemma fr_frx c s s' : fr c s s' -> frx c s s'.
Proof. intros (A & B & C). split; [auto|]. split; [rewrite B; apply incl_refl|auto]. Qed.
Lemma same_frx c s s' : same s s' -> frx c s s'.
Proof. intros H. apply fr_frx, same_fr, H. Qed.

Lemma frx_index_put_all c s ks l : frx c s (index_put_all s ks l).
Proof.
  destruct (index_put_all_spec ks s l) as (P & T & I & _).
  split; [apply creach_eq; auto|auto].
Qed.
Lemma frx_index_put c s k l : frx c s (index_put s k l).
Proof.
  destruct (same_index_put s k l) as (P & T & I).
  split; [apply creach_eq; auto|]. split; [rewrite I; apply incl_tl, incl_refl|auto].
Qed.

Definition ext (w : world) (s s' : state) : Prop := frx (w_cfg w) s s' /\ (winv w s -> winv w s').

Lemma ext_refl w s : ext w s s.
Proof. split; [apply frx_refl|auto]. Qed.
Lemma ext_trans w a b d : ext w a b -> ext w b d -> ext w a d.
Proof. intros [A1 A2] [B1 B2]. split; [eapply frx_trans; eauto|auto]. Qed.
Lemma ext_fr w s s' : fr (w_cfg w) s s' -> ext w s s'.
Proof. intros F. split; [apply fr_frx, F|apply winv_fr, F]. Qed.
Lemma ext_same w s s' : same s s' -> ext w s s'.
Proof. intros S. apply ext_fr, same_fr, S. Qed.
Lemma ext_put_all w s0 s ks l :
  ext w s0 s -> (winv w s0 -> l_abs l < k_end (proj s) /\ (c_hier (w_cfg w) = true -> fk_closed ks)) ->
  ext w s0 (index_put_all s ks l).
Proof.
  (* the side condition may assume the invariants at the origin [s0], where
     a caller knows them (a parked thread's writer is bounded there) *)
  intros [F W] C. split; [eapply frx_trans; [exact F|apply frx_index_put_all]|].
  intros HI. destruct (C HI) as [B FC]. apply winv_put_all; auto.
Qed.
Lemma ext_put w s0 s k l :
  ext w s0 s -> (winv w s0 -> c_hier (w_cfg w) = false /\ l_abs l < k_end (proj s)) ->
  ext w s0 (index_put s k l).
Proof.
  intros [F W] C. split; [eapply frx_trans; [exact F|apply frx_index_put]|].
  intros HI. destruct (C HI) as [Hh B]. apply (winv_flat w _ Hh), einv_put; [exact (proj1 (W HI))|exact B].
Qed.
Lemma ext_copy w s o k l :
  In (canonical_key o, l) (s_index s) -> (c_hier (w_cfg w) = true -> exists a, k = (o, S a)) ->
  ext w s (index_put s k l).
Proof. intros IC HK. split; [apply frx_index_put|intros HI; exact (winv_copy w s o k l HI IC HK)]. Qed.
Lemma ext_kinv w s s' : ext w s s' -> kinv (w_cfg w) (proj s) -> kinv (w_cfg w) (proj s').
Proof. intros [(A & _) _] K. eapply creach_kinv; eauto. Qed.

(** block number T is listed, not quarantined and not old *)
Definition kfresh (k : cnt) (T : N) : Prop :=
  k_tbr k <= T /\ k_rel k + N.of_nat (k_old k) <= T /\ T < k_end k.

(** object (o,i) has an index entry under one of its lookup keys in block T *)
Definition placed (w : world) (s : state) (o i : nat) (T : N) : Prop :=
  exists k l, In k (lookup_keys w o i) /\ In (k, l) (s_index s) /\ l_abs l = T.

Lemma placed_incl w s s' o i T : incl (s_index s) (s_index s') -> placed w s o i T -> placed w s' o i T.
Proof. intros I (k & l & A & B & C). exists k, l. auto. Qed.

Lemma not_old_fresh c s l :
  kinv c (proj s) -> loc_valid s l = true -> needs_refresh s l = false -> kfresh (proj s) (l_abs l).
Proof.
  intros K V R. unfold loc_valid in V. unfold needs_refresh in R.
  pose proof (ki_rel_tbr _ _ K) as H. cbn in H.
  unfold kfresh, k_end; cbn. lia.
Qed.

Lemma placed_found w s o i T :
  placed w s o i T -> s_tbr s <= T -> T < s_released s + N.of_nat (length (s_blocks s)) ->
  least_specific s (lookup_keys w o i) <> None.
Proof.
  intros (k & l & A & B & C) H1 H2 E.
  eapply (index_get_of_valid s k l); [exact B| |eapply least_specific_none; eauto].
  unfold loc_valid. lia.
Qed.

Definition get_post (w : world) (s' : state) (o i : nat) (t : thread) : Prop :=
  exists uid l refresh fkeys, t = TGet o uid l refresh fkeys /\
    (c_hier (w_cfg w) = true -> fk_closed fkeys) /\
    match refresh with
    | None => exists T, placed w s' o i T /\ kfresh (proj s') T
    | Some wr => (exists k, In k fkeys /\ In k (lookup_keys w o i)) /\
                 k_rel (proj s') + N.of_nat (k_old (proj s')) <= wr_abs wr /\ wr_abs wr < k_end (proj s')
    end.

Lemma get_post_tgood w s' o i t : get_post w s' o i t -> tgood w s' t.
Proof.
  intros (uid & l & [wr|] & fkeys & -> & FC & H); (split; [|exact FC]); [exact (proj2 (proj2 H))|exact I].
Qed.

Lemma open_with_refresh_spec w s o i l fkeys r s' :
  kinv (w_cfg w) (proj s) -> (c_hier (w_cfg w) = true -> fk_closed fkeys) ->
  open_with_refresh w s o l fkeys = (r, s') ->
  (if needs_refresh s l then exists k, In k fkeys /\ In k (lookup_keys w o i)
   else (exists k, In k (lookup_keys w o i) /\ In (k, l) (s_index s)) /\ loc_valid s l = true) ->
  ext w s s' /\ match r with Ok t => get_post w s' o i t | Err e => e <> cNotFound end.
Proof.
  intros K FC H HR. unfold open_with_refresh in H.
  destruct (block_of_loc s l) as [b|] eqn:EB.
  2:{ inversion H; subst. split; [apply ext_refl|discriminate]. }
  pose proof (same_pin s (b_uid b)) as SP.
  destruct (needs_refresh s l) eqn:NR.
  - destruct (ocn_put (w_cfg w) (pin s (b_uid b)) (l_size l)) as [r2 s2] eqn:EO.
    apply ocn_put_spec in EO. destruct EO as (F2 & HR2).
    assert (F02 : ext w s s2) by (eapply ext_trans; [apply ext_same; exact SP|apply ext_fr; exact F2]).
    destruct r2 as [wr|e].
    + destruct HR2 as [B1 B2].
      destruct (lockstep (w_cfg w)).
      * inversion H; subst. split; [exact F02|]. exists (b_uid b), l, (Some wr), fkeys. split; [reflexivity|].
        split; [exact FC|]. split; [exact HR|]. unfold k_end; cbn. auto.
      * pose proof (same_write_block s2 (wr_uid wr) (wr_off wr) (read_block s2 (b_uid b) (l_off l) (l_size l))) as S3.
        destruct (finalize (w_cfg w) (write_block s2 (wr_uid wr) (wr_off wr) (read_block s2 (b_uid b) (l_off l) (l_size l))) wr true) as [r4 s4] eqn:EF.
        apply finalize_spec in EF. destruct EF as (S4 & HR4).
        assert (S24 : same s2 s4) by (eapply same_trans; eauto).
        destruct r4 as [nl|e].
        -- inversion H; subst. destruct HR4 as (A1 & A2 & _).
           destruct (index_put_all_spec fkeys s4 nl) as (P5 & T5 & I5 & A5).
           pose proof (proj1 S24) as P24.
           split.
           { apply ext_put_all; [eapply ext_trans; [exact F02|apply ext_same; exact S24]|].
             intros _. split; [rewrite A1, P24; exact B2|exact FC]. }
           exists (b_uid b), l, None, []. split; [reflexivity|].
           split; [intros _; apply fk_closed_nil|].
           exists (l_abs nl). destruct HR as (k & K1 & K2). split.
           ++ exists k, nl. auto.
           ++ rewrite P5, P24. unfold kfresh, k_end; cbn.
              assert (E : s_tbr s4 = s_tbr s2) by (change (k_tbr (proj s4) = k_tbr (proj s2)); rewrite P24; reflexivity).
              clear - A1 A2 B1 B2 E. lia.
        -- inversion H; subst.
           split; [eapply ext_trans; [exact F02|eapply ext_trans; [apply ext_same; exact S24|apply ext_same, same_unpin]]|].
           exact (proj2 HR4).
    + inversion H; subst.
      split; [eapply ext_trans; [exact F02|apply ext_same, same_unpin]|exact (proj1 HR2)].
  - inversion H; subst. split; [apply ext_same; exact SP|]. exists (b_uid b), l, None, fkeys. split; [reflexivity|]. split; [exact FC|].
    destruct HR as [(k & K1 & K2) V].
    exists (l_abs l). destruct SP as [PP [IP _]]. split.
    + exists k, l. rewrite IP. auto.
    + rewrite PP. eapply not_old_fresh; eauto.
Qed.

Lemma needs_refresh_proj s s' l : proj s' = proj s -> needs_refresh s' l = needs_refresh s l.
Proof.
  intros P. unfold needs_refresh.
  change (s_released s') with (k_rel (proj s')). change (s_old s') with (k_old (proj s')). rewrite P. reflexivity.
Qed.
Lemma loc_valid_proj s s' l : proj s' = proj s -> loc_valid s' l = loc_valid s l.
Proof.
  intros P. unfold loc_valid.
  change (s_released s') with (k_rel (proj s')). change (s_tbr s') with (k_tbr (proj s')).
  change (length (s_blocks s')) with (k_len (proj s')). rewrite P. reflexivity.
Qed.

Lemma get_open_spec w s o i r s' :
  kinv (w_cfg w) (proj s) ->
  get_open w s o i = (r, s') ->
  ext w s s' /\
  match r with
  | Ok t => get_post w s' o i t
  | Err e => e = cNotFound -> least_specific s (lookup_keys w o i) = None
  end.
Proof.
  intros K H. unfold get_open in H.
  destruct (least_specific s (lookup_keys w o i)) as [[k l]|] eqn:LS.
  2:{ inversion H; subst. split; [apply ext_refl|reflexivity]. }
  apply least_specific_some in LS. destruct LS as [KI IG].
  apply index_get_some in IG. destruct IG as [IN V].
  assert (FIN : forall s0, ext w s s0 ->
                (ext w s0 s' /\ match r with Ok t => get_post w s' o i t | Err e => e <> cNotFound end) ->
                ext w s s' /\
                match r with Ok t => get_post w s' o i t | Err e => e = cNotFound -> Some (k, l) = None end).
  { intros s0 F0 (A & B). split; [eapply ext_trans; eauto|]. destruct r; [exact B|intros E; contradiction]. }
  destruct (negb (needs_refresh s l)) eqn:NR.
  - apply negb_true_iff in NR. apply (FIN s (ext_refl _ _)).
    apply (open_with_refresh_spec w s o i l [] r s' K (fun _ => fk_closed_nil) H).
    rewrite NR. split; [exists k; auto|auto].
  - apply negb_false_iff in NR. destruct (c_hier (w_cfg w)) eqn:Hh.
    + destruct (lookup_keys_hier w o i k Hh KI) as (a & ->).
      destruct (sync_from_canonical s o (o, S a)) as [[cl s1]|] eqn:SY.
      * apply sync_from_canonical_some in SY. destruct SY as (IC & NC & ->).
        apply index_get_some in IC. destruct IC as [IC VC].
        apply (FIN (index_put s (o, S a) cl)); [apply (ext_copy w s o _ _ IC); eauto|].
        (* counters and validity are read through [index_put] by conversion *)
        apply (open_with_refresh_spec w (index_put s (o, S a) cl) o i cl [] r s' K (fun _ => fk_closed_nil) H).
        change (needs_refresh (index_put s (o, S a) cl) cl) with (needs_refresh s cl). rewrite NC.
        split; [exists (o, S a); split; [auto|left; reflexivity]|exact VC].
      * apply (FIN s (ext_refl _ _)).
        apply (open_with_refresh_spec w s o i l [canonical_key o; (o, S a)] r s' K (fun _ => fk_closed_pair o a) H).
        rewrite NR. exists (o, S a). split; [right; left; reflexivity|auto].
    + apply (FIN s (ext_refl _ _)).
      apply (open_with_refresh_spec w s o i l [k] r s' K); [intros Hh'; congruence|exact H|].
      rewrite NR. exists k. split; [left; reflexivity|auto].
Qed.

Lemma get_consume_shape w s o uid l refresh fkeys code bytes s' :
  get_consume w s o uid l refresh fkeys = (code, bytes, s') ->
  exists s1 s2,
    fr (w_cfg w) s s1 /\ s_pushbacks s1 = s_pushbacks s /\ s_dev s1 = s_dev s /\
    same s1 s2 /\ (refresh = None -> s2 = s1) /\
    (s' = unpin (w_cfg w) s2 uid /\ (code = cOK -> refresh = None) \/
     exists wr nl, refresh = Some wr /\ l_abs nl = wr_abs wr /\ s_tbr s2 <= wr_abs wr /\
                   s' = unpin (w_cfg w) (index_put_all s2 fkeys nl) uid).
Proof.
  unfold get_consume.
  destruct (read_validated w s o uid l) as [[valid bs] s1] eqn:ER.
  destruct (read_validated_pb _ _ _ _ _ _ _ _ ER) as [E1 D1].
  apply read_validated_spec in ER. destruct ER as [F1 _].
  destruct refresh as [wr|].
  - set (s1' := if valid then write_block s1 (wr_uid wr) (wr_off wr) bs else s1).
    assert (S1' : same s1 s1') by (unfold s1'; destruct valid; [apply same_write_block|apply same_refl]).
    destruct (finalize (w_cfg w) s1' wr valid) as [r4 s4] eqn:EF.
    apply finalize_spec in EF. destruct EF as (S4 & HR4).
    assert (S14 : same s1 s4) by (eapply same_trans; eauto).
    intros H. exists s1, s4.
    split; [exact F1|]. split; [exact E1|]. split; [exact D1|]. split; [exact S14|]. split; [discriminate|].
    destruct r4 as [nl|e].
    + destruct HR4 as (A1 & A2 & _).
      right. exists wr, nl. split; [reflexivity|]. split; [exact A1|]. split; [exact A2|].
      destruct (negb valid); [|destruct (Z.eqb cOK cOK)]; inversion H; reflexivity.
    + destruct HR4 as [N1 _]. left.
      destruct (negb valid); [|destruct (Z.eqb e cOK) eqn:EZ]; inversion H; subst; (split; [reflexivity|]).
      * discriminate.
      * apply Z.eqb_eq in EZ. contradiction.
      * intros; contradiction.
  - intros H. exists s1, s1.
    split; [exact F1|]. split; [exact E1|]. split; [exact D1|]. split; [apply same_refl|]. split; [reflexivity|].
    left. destruct (negb valid); [|destruct (Z.eqb cOK cOK)]; inversion H; subst; split; reflexivity.
Qed.

Lemma get_consume_spec w s o uid l refresh fkeys code bytes s' :
  get_consume w s o uid l refresh fkeys = (code, bytes, s') ->
  frx (w_cfg w) s s' /\
  (code = cOK -> forall wr, refresh = Some wr ->
     exists nl, l_abs nl = wr_abs wr /\ s_tbr s' <= wr_abs wr /\ forall k, In k fkeys -> In (k, nl) (s_index s')).
Proof.
  intros H.
  destruct (get_consume_shape _ _ _ _ _ _ _ _ _ _ H)
    as (s1 & s2 & F1 & _ & _ & S2 & _ & [[-> N]|(wr & nl & -> & A1 & A2 & ->)]).
  - split; [|intros E wr R; rewrite (N E) in R; discriminate].
    eapply frx_trans; [apply fr_frx, F1|]. apply same_frx. eapply same_trans; [exact S2|apply same_unpin].
  - pose proof (same_unpin (w_cfg w) (index_put_all s2 fkeys nl) uid) as SU. split.
    + eapply frx_trans; [apply fr_frx, F1|]. eapply frx_trans; [apply same_frx, S2|].
      eapply frx_trans; [apply frx_index_put_all|apply same_frx, SU].
    + intros _ wr0 E. inversion E; subst wr0. exists nl. destruct SU as [PU [IU _]].
      destruct (index_put_all_spec fkeys s2 nl) as (P5 & _ & _ & A5). split; [exact A1|]. split.
      * change (k_tbr (proj (unpin (w_cfg w) (index_put_all s2 fkeys nl) uid)) <= wr_abs wr). rewrite PU, P5. exact A2.
      * intros k Hk. rewrite IU. auto.
Qed.

Lemma get_consume_ext w s o uid l refresh fkeys code bytes s' :
  get_consume w s o uid l refresh fkeys = (code, bytes, s') ->
  (winv w s -> tgood w s (TGet o uid l refresh fkeys)) -> ext w s s'.
Proof.
  intros H TG.
  destruct (get_consume_shape _ _ _ _ _ _ _ _ _ _ H)
    as (s1 & s2 & F1 & _ & _ & S2 & _ & [[-> _]|(wr & nl & -> & A1 & _ & ->)]).
  - eapply ext_trans; [apply ext_fr, F1|]. eapply ext_trans; [apply ext_same, S2|apply ext_same, same_unpin].
  - assert (F2 : ext w s s2) by (eapply ext_trans; [apply ext_fr, F1|apply ext_same, S2]).
    eapply ext_trans; [|apply ext_same, same_unpin]. apply ext_put_all; [exact F2|].
    intros HI. destruct (TG HI) as [W FC]. split; [|exact FC].
    rewrite A1. exact (wr_ok_mono _ _ _ _ (proj1 (proj1 F2)) W).
Qed.

(** the copying path, which [fm_refresh_one] has inline *)
Definition fm_copy (w : world) (s : state) (o : nat) (l : loc) (fkeys : list key) : res bool * state :=
  match block_of_loc s l with
  | None => (Err (-3)%Z, s)
  | Some b =>
      let s0 := pin s (b_uid b) in
      match ocn_put (w_cfg w) s0 (l_size l) with
      | (Err e, s1) => (Err e, unpin (w_cfg w) s1 (b_uid b))
      | (Ok wr, s1) =>
          let '(valid, bytes, s2) := read_validated w s1 o (b_uid b) l in
          let s2' := if valid then write_block s2 (wr_uid wr) (wr_off wr) bytes else s2 in
          let s2'' := unpin (w_cfg w) s2' (b_uid b) in
          match finalize (w_cfg w) s2'' wr valid with
          | (Err e, s3) => (Err (if valid then e else cInternal), s3)
          | (Ok nl, s3) => (Ok true, index_put_all s3 fkeys nl)
          end
      end
  end.

Lemma fm_copy_shape w s o l fkeys r s' :
  fm_copy w s o l fkeys = (r, s') ->
  (exists e, r = Err e /\ e <> cOK /\ fr (w_cfg w) s s') \/
  (exists s3 nl, r = Ok true /\ fr (w_cfg w) s s3 /\ s' = index_put_all s3 fkeys nl /\
                 kfresh (proj s3) (l_abs nl)).
Proof.
  intros HC. unfold fm_copy in HC.
  destruct (block_of_loc s l) as [b|].
  2:{ inversion HC; subst. left. exists (-3)%Z. split; [reflexivity|]. split; [discriminate|apply fr_refl]. }
  cbv zeta in HC.
  destruct (ocn_put (w_cfg w) (pin s (b_uid b)) (l_size l)) as [r1 s1] eqn:EO.
  apply ocn_put_spec in EO. destruct EO as (F1 & HR1).
  assert (F01 : fr (w_cfg w) s s1) by (eapply fr_trans; [apply same_fr, same_pin|exact F1]).
  destruct r1 as [wr|e].
  2:{ inversion HC; subst. left. exists e. split; [reflexivity|]. split; [exact (proj2 HR1)|].
      eapply fr_trans; [exact F01|apply same_fr, same_unpin]. }
  destruct HR1 as [B1 B2].
  destruct (read_validated w s1 o (b_uid b) l) as [[valid bs] s2] eqn:ER.
  apply read_validated_spec in ER. destruct ER as [F2 V2].
  set (s2' := if valid then write_block s2 (wr_uid wr) (wr_off wr) bs else s2) in HC.
  assert (S2' : same s2 s2') by (unfold s2'; destruct valid; [apply same_write_block|apply same_refl]).
  destruct (finalize (w_cfg w) (unpin (w_cfg w) s2' (b_uid b)) wr valid) as [r3 s3] eqn:EF.
  apply finalize_spec in EF. destruct EF as (S3 & HR3).
  assert (S23 : same s2 s3) by (eapply same_trans; [exact S2'|eapply same_trans; [apply same_unpin|exact S3]]).
  assert (F03 : fr (w_cfg w) s s3).
  { eapply fr_trans; [exact F01|]. eapply fr_trans; [exact F2|apply same_fr; exact S23]. }
  destruct r3 as [nl|e]; inversion HC; subst.
  - destruct HR3 as (A1 & A2 & ->). right. exists s3, nl.
    split; [reflexivity|]. split; [exact F03|]. split; [reflexivity|].
    (* the read was valid, so the counters are those right after the allocation *)
    destruct S23 as [P23 _]. rewrite (V2 eq_refl) in P23.
    unfold kfresh. rewrite A1. split; [exact A2|]. rewrite P23. exact (conj B1 B2).
  - left. exists (if valid then e else cInternal). split; [reflexivity|]. split; [|exact F03].
    destruct valid; [exact (proj1 HR3)|discriminate].
Qed.

Lemma fm_refresh_one_eq w s o i :
  fm_refresh_one w s o i =
  match least_specific s (lookup_keys w o i) with
  | None => (Ok false, s)
  | Some (k, l) =>
      if negb (needs_refresh s l) then (Ok true, s)
      else if c_hier (w_cfg w) then
             match sync_from_canonical s o k with
             | Some (_, s1) => (Ok true, s1)
             | None => fm_copy w s o l [canonical_key o; k]
             end
           else fm_copy w s o l [k]
  end.
Proof.
  unfold fm_refresh_one, fm_copy. destruct (least_specific s (lookup_keys w o i)) as [[k l]|]; [|reflexivity].
  destruct (negb (needs_refresh s l)); [reflexivity|].
  destruct (c_hier (w_cfg w)); [destruct (sync_from_canonical s o k) as [[cl s1]|]|]; reflexivity.
Qed.
Lemma fm_refresh_one_spec w s o i r s' :
  kinv (w_cfg w) (proj s) ->
  fm_refresh_one w s o i = (r, s') ->
  ext w s s' /\
  match r with
  | Ok false => least_specific s (lookup_keys w o i) = None
  | Ok true => exists T, placed w s' o i T /\ kfresh (proj s') T
  | Err e => e <> cOK
  end.
Proof.
  intros K H. rewrite fm_refresh_one_eq in H.
  destruct (least_specific s (lookup_keys w o i)) as [[k l]|] eqn:LS.
  2:{ inversion H; subst. split; [apply ext_refl|reflexivity]. }
  apply least_specific_some in LS. destruct LS as [KI IG].
  apply index_get_some in IG. destruct IG as [IN V].
  destruct (negb (needs_refresh s l)) eqn:NR.
  { apply negb_true_iff in NR. inversion H; subst. split; [apply ext_refl|].
    exists (l_abs l). split; [exists k, l; auto|eapply not_old_fresh; eauto]. }
  apply negb_false_iff in NR.
  (* the direct (sync) path *)
  assert (SYNC : forall cl s1, sync_from_canonical s o k = Some (cl, s1) ->
            ext w s s1 /\ exists T, placed w s1 o i T /\ kfresh (proj s1) T).
  { intros cl s1 SY. apply sync_from_canonical_some in SY. destruct SY as (IC & NC & ->).
    apply index_get_some in IC. destruct IC as [IC VC].
    destruct (same_index_put s k cl) as (P1 & T1 & I1).
    split; [apply (ext_copy w s o _ _ IC); intros Hh; exact (lookup_keys_hier w o i k Hh KI)|].
    exists (l_abs cl). split.
    - exists k, cl. rewrite I1. split; [auto|]. split; [left; reflexivity|reflexivity].
    - rewrite P1. eapply not_old_fresh; eauto. }
  (* the copying path *)
  assert (COPY : forall fkeys, In k fkeys -> (c_hier (w_cfg w) = true -> fk_closed fkeys) ->
            fm_copy w s o l fkeys = (r, s') ->
            ext w s s' /\
            match r with
            | Ok false => Some (k, l) = None
            | Ok true => exists T, placed w s' o i T /\ kfresh (proj s') T
            | Err e => e <> cOK
            end).
  { intros fkeys KF FC HC.
    destruct (fm_copy_shape _ _ _ _ _ _ _ HC) as [(e & -> & NE & F)|(s3 & nl & -> & F & -> & KFr)].
    - exact (conj (ext_fr _ _ _ F) NE).
    - destruct (index_put_all_spec fkeys s3 nl) as (P5 & _ & _ & A5).
      split; [apply ext_put_all; [apply ext_fr, F|intros _; split; [exact (proj2 (proj2 KFr))|exact FC]]|].
      exists (l_abs nl). split; [exists k, nl; auto|rewrite P5; exact KFr]. }
  destruct (c_hier (w_cfg w)) eqn:Hh.
  - destruct (sync_from_canonical s o k) as [[cl s1]|] eqn:SY.
    + inversion H; subst. exact (SYNC cl s' eq_refl).
    + apply (COPY [canonical_key o; k]); [right; left; reflexivity| |exact H].
      intros _. destruct (lookup_keys_hier w o i k Hh KI) as (a & ->). apply fk_closed_pair.
  - apply (COPY [k]); [left; reflexivity|discriminate|exact H].
Qed.

(** what FindMissing establishes for a digest that it examines in state sm *)
Definition fm_present (w : world) (sm : state) (o i : nat) : Prop :=
  exists T, placed w sm o i T /\ kfresh (proj sm) T.

Lemma fm_phase2_spec w : forall todo s missing r s',
  kinv (w_cfg w) (proj s) ->
  fm_phase2 w s todo missing = (r, s') ->
  ext w s s' /\
  match r with
  | Err e => e <> cOK
  | Ok m =>
      incl missing m /\
      (forall pos, In pos m -> In pos missing \/
          exists o i sm, In (pos, (o, i)) todo /\ frx (w_cfg w) s sm /\ frx (w_cfg w) sm s' /\
                         least_specific sm (lookup_keys w o i) = None) /\
      (forall pos o i, In (pos, (o, i)) todo -> In pos m \/
          exists sm, frx (w_cfg w) s sm /\ frx (w_cfg w) sm s' /\ fm_present w sm o i)
  end.
Proof.
  induction todo as [|[pos0 [o0 i0]] t IH]; intros s missing r s' K H; cbn [fm_phase2] in H.
  - inversion H; subst. split; [apply ext_refl|]. split; [apply incl_refl|]. split; [auto|]. intros ? ? ? [].
  - destruct (fm_refresh_one w s o0 i0) as [r1 s1] eqn:E1.
    apply fm_refresh_one_spec in E1; [|exact K]. destruct E1 as (EX1 & HR1).
    pose proof (ext_kinv _ _ _ EX1 K) as K1. pose proof (proj1 EX1) as F1.
    destruct r1 as [[|]|e]; [| |inversion H; subst; exact (conj EX1 HR1)].
    + apply IH in H; [|exact K1]. destruct H as (EX2 & R2). pose proof (proj1 EX2) as F2.
      split; [eapply ext_trans; eauto|]. destruct r as [m|e]; [|exact R2]. destruct R2 as (IM & A & B).
      split; [exact IM|]. split.
      * intros pos Hp. destruct (A pos Hp) as [X|(o & i & sm & X1 & X2 & X3 & X4)]; [auto|].
        right. exists o, i, sm. split; [right; auto|]. split; [eapply frx_trans; eauto|auto].
      * intros pos o i [E|Hin].
        -- inversion E; subst. right. exists s1. split; [auto|]. split; [auto|]. exact HR1.
        -- destruct (B pos o i Hin) as [X|(sm & X1 & X2 & X3)]; [auto|].
           right. exists sm. split; [eapply frx_trans; eauto|]. split; auto.
    + apply IH in H; [|exact K1]. destruct H as (EX2 & R2). pose proof (proj1 EX2) as F2.
      split; [eapply ext_trans; eauto|]. destruct r as [m|e]; [|exact R2]. destruct R2 as (IM & A & B).
      split; [intros x Hx; apply IM, in_or_app; auto|]. split.
      * intros pos Hp. destruct (A pos Hp) as [X|(o & i & sm & X1 & X2 & X3 & X4)].
        -- apply in_app_or in X. destruct X as [X|[X|[]]]; [auto|]. subst pos.
           right. exists o0, i0, s. split; [left; reflexivity|]. split; [apply frx_refl|].
           split; [eapply frx_trans; eauto|exact HR1].
        -- right. exists o, i, sm. split; [right; auto|]. split; [eapply frx_trans; eauto|auto].
      * intros pos o i [E|Hin].
        -- inversion E; subst. left. apply IM, in_or_app. right. left. reflexivity.
        -- destruct (B pos o i Hin) as [X|(sm & X1 & X2 & X3)]; [auto|].
           right. exists sm. split; [eapply frx_trans; eauto|]. split; auto.
Qed.

Lemma enumerate_fun {T} (l : list T) n p x y : In (p, x) (enumerate n l) -> In (p, y) (enumerate n l) -> x = y.
Proof. intros A B. apply enumerate_in in A, B. destruct A as [_ A], B as [_ B]. congruence. Qed.

Lemma enumerate_length {T} (l : list T) : forall n, length (enumerate n l) = length l.
Proof. induction l as [|y t IH]; intros n; cbn; [reflexivity|]. rewrite IH. reflexivity. Qed.

Lemma find_missing_spec w s ds m s' :
  kinv (w_cfg w) (proj s) ->
  find_missing w s ds = (Ok m, s') ->
  (forall pos, In pos m ->
      exists o i sm, In (pos, (o, i)) (enumerate 0 ds) /\ frx (w_cfg w) s sm /\ frx (w_cfg w) sm s' /\
                     least_specific sm (lookup_keys w o i) = None) /\
  (forall pos o i, In (pos, (o, i)) (enumerate 0 ds) -> ~ In pos m ->
      exists sm, frx (w_cfg w) s sm /\ frx (w_cfg w) sm s' /\ fm_present w sm o i).
Proof.
  intros K H. unfold find_missing in H.
  set (numbered := enumerate 0 ds) in *.
  set (f1 := fun '(_, (o, i)) => match least_specific s (lookup_keys w o i) with None => true | Some _ => false end) in H.
  set (f2 := fun '(_, (o, i)) => match least_specific s (lookup_keys w o i) with
                                   | Some (_, l) => needs_refresh s l | None => false end) in H.
  apply fm_phase2_spec in H; [|exact K]. destruct H as ([F _] & IM & A & B).
  split.
  - intros pos Hp. destruct (A pos Hp) as [X|(o & i & sm & X1 & X2 & X3 & X4)].
    + apply in_map_iff in X. destruct X as [[p [o i]] [E X]]. cbn in E; subst p.
      apply filter_In in X. destruct X as [X1 X2]. cbn in X2.
      exists o, i, s. split; [exact X1|]. split; [apply frx_refl|]. split; [exact F|].
      destruct (least_specific s (lookup_keys w o i)); [discriminate|reflexivity].
    + apply filter_In in X1. destruct X1 as [X1 _]. exists o, i, sm. auto.
  - intros pos o i Hin Hn.
    destruct (f2 (pos, (o, i))) eqn:E2.
    + assert (HT : In (pos, (o, i)) (filter f2 numbered)) by (apply filter_In; auto).
      destruct (B pos o i HT) as [X|(sm & X1 & X2 & X3)]; [contradiction|].
      exists sm. auto.
    + cbn in E2. destruct (least_specific s (lookup_keys w o i)) as [[k l]|] eqn:LS.
      * exists s. split; [apply frx_refl|]. split; [exact F|].
        apply least_specific_some in LS. destruct LS as [KI IG]. apply index_get_some in IG. destruct IG as [IN V].
        exists (l_abs l). split; [exists k, l; auto|eapply not_old_fresh; eauto].
      * exfalso. apply Hn. apply IM. apply in_map_iff. exists (pos, (o, i)). split; [reflexivity|].
        apply filter_In. split; [exact Hin|]. cbn. rewrite LS. reflexivity.
Qed.

Lemma find_missing_single w s o i m s' :
  kinv (w_cfg w) (proj s) -> find_missing w s [(o, i)] = (Ok m, s') -> ~ In 0%nat m -> fm_present w s' o i.
Proof.
  intros K H NM. unfold find_missing in H. cbn [enumerate filter map] in H.
  destruct (least_specific s (lookup_keys w o i)) as [[k l]|] eqn:LS.
  2:{ inversion H; subst. exfalso. apply NM. left. reflexivity. }
  destruct (needs_refresh s l) eqn:NR; cbn [filter map fm_phase2] in H.
  - destruct (fm_refresh_one w s o i) as [r1 s1] eqn:E1.
    apply fm_refresh_one_spec in E1; [|exact K]. destruct E1 as (_ & HP).
    destruct r1 as [[|]|e]; inversion H; subst; [exact HP|].
    exfalso. apply NM. left. reflexivity.
  - inversion H; subst.
    apply least_specific_some in LS. destruct LS as [KI IG]. apply index_get_some in IG. destruct IG as [IN V].
    exists (l_abs l). split; [exists k, l; auto|eapply not_old_fresh; eauto].
Qed.

Lemma find_missing_ext w s ds r s' :
  kinv (w_cfg w) (proj s) -> find_missing w s ds = (r, s') -> ext w s s'.
Proof. intros K H. unfold find_missing in H. exact (proj1 (fm_phase2_spec w _ _ _ _ _ K H)). Qed.

Lemma find_missing_err w s ds e s' :
  kinv (w_cfg w) (proj s) -> find_missing w s ds = (Err e, s') -> e <> cOK.
Proof. intros K H. unfold find_missing in H. exact (proj2 (fm_phase2_spec w _ _ _ _ _ K H)). Qed.
