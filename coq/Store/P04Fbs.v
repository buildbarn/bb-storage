(** C04 proofs: findBlockWithSpace (its four loops never run out of
    fuel), LocationBlobMap.Put, the put finalizer, validated reads. *)
From Coq Require Import List NArith ZArith Bool Arith Lia Permutation.
From Coq Require Import ZifyN ZifyNat ZifyBool.
From BBS Require Import Store.Model Store.Wf Store.P04Base Store.P04Prim.
Import ListNotations.
Local Open Scope nat_scope.

(** the consequences of [wf_config] that the proofs use *)
Definition wfc (c : config) : Prop :=
  (0 < c_bs c)%N /\ 1 <= c_new c /\ 1 <= desired_new c.
Lemma wf_config_wfc c : wf_config c = true -> wfc c.
Proof.
  unfold wf_config, wfc, desired_new. rewrite !andb_true_iff.
  intros [[[[[H1 H2] H3] _] _] _]. apply N.ltb_lt in H1. apply Nat.leb_le in H2.
  split; [exact H1|]. split; [exact H2|]. destruct (c_mutable c); [lia | exact H2].
Qed.

(** states that differ only in the allocation-attempt fields, the index, the device ... *)
Definition aeq (s s' : state) : Prop := same_alloc s s' /\ same_cnt s s' /\ s_threads s' = s_threads s.
Lemma aeq_refl s : aeq s s.
Proof. unfold aeq, same_alloc, same_cnt. repeat split; reflexivity. Qed.
Lemma aeq_trans s1 s2 s3 : aeq s1 s2 -> aeq s2 s3 -> aeq s1 s3.
Proof.
  unfold aeq, same_alloc, same_cnt.
  intros ((A1 & A2 & A3 & A4 & A5) & (B1 & B2 & B3 & B4 & B5) & C1)
         ((A1' & A2' & A3' & A4' & A5') & (B1' & B2' & B3' & B4' & B5') & C1').
  repeat split; congruence.
Qed.
Lemma HI_aeq c s0 s s' R : aeq s s' -> HI c s0 s R -> HI c s0 s' R.
Proof. intros (A & B & C). apply HI_same; assumption. Qed.
Lemma aeq_upd_alloc s a i : aeq s (upd_alloc s a i).
Proof. unfold aeq, same_alloc, same_cnt. sred. repeat split; reflexivity. Qed.
Lemma has_space_aeq c s s' idx size : aeq s s' -> has_space c s' idx size = has_space c s idx size.
Proof. intros ((E & _) & _). unfold has_space. rewrite E. reflexivity. Qed.

(** The counter invariant relates six numbers; the arithmetic of the loops
    is done on them, apart from the states. *)
Definition counts_ok (c : config) (len o cu n : nat) (rel tbr : N) : Prop :=
  len = o + cu + n /\ (rel <= tbr)%N /\ (tbr <= rel + N.of_nat len)%N /\
  (c_mutable c = false -> cu <= c_cur c /\ cu + n <= c_cur c + c_new c).

Lemma CInv_counts c s : CInv c s <->
  counts_ok c (length (s_blocks s)) (s_old s) (s_cur s) (s_new s) (s_released s) (s_tbr s).
Proof.
  split; [intros [H1 H2 H3 H4]; exact (conj H1 (conj H2 (conj H3 H4)))|].
  intros (H1 & H2 & H3 & H4). constructor; assumption.
Qed.

Section Counts.
Variables (c : config) (len o cu n : nat) (rel tbr : N).
Hypothesis H : counts_ok c len o cu n rel tbr.

Lemma counts_pop len' o' cu' n' : (rel < tbr)%N -> len = S len' -> len' = o' + cu' + n' ->
  cu' <= cu -> cu' + n' <= cu + n -> counts_ok c len' o' cu' n' (rel + 1) tbr.
Proof. destruct H as (H1 & H2 & H3 & H4). unfold counts_ok. lia. Qed.

Lemma counts_push_new : grow_new c cu n = true -> counts_ok c (S len) o cu (S n) rel tbr.
Proof.
  destruct H as (H1 & H2 & H3 & H4). unfold grow_new, counts_ok.
  destruct (c_mutable c); intros G; [lia|]. apply Nat.ltb_lt in G. lia.
Qed.

Lemma counts_new_cur : desired_new c < n -> counts_ok c len o (S cu) (pred n) rel tbr.
Proof.
  destruct H as (H1 & H2 & H3 & H4). unfold desired_new, counts_ok.
  destruct (c_mutable c); lia.
Qed.

Lemma counts_push_cur : grow_cur c cu = true -> counts_ok c (S len) o (S cu) n rel tbr.
Proof.
  destruct H as (H1 & H2 & H3 & H4). unfold grow_cur, counts_ok.
  destruct (c_mutable c); [lia | discriminate].
Qed.

Lemma counts_push_old : counts_ok c (S len) (S o) cu n rel tbr.
Proof. destruct H as (H1 & H2 & H3 & H4). unfold counts_ok. lia. Qed.
End Counts.

Lemma counts_pop_old c len o cu n rel tbr : counts_ok c (S len) (S o) cu n rel tbr ->
  counts_ok c len o cu n (rel + 1) (N.max tbr (rel + 1)).
Proof. intros (H1 & H2 & H3 & H4). unfold counts_ok. lia. Qed.

Lemma HI_recount c s0 s s' R : AInv c s R -> Fr s0 s ->
  same_alloc s s' -> s_threads s' = s_threads s -> s_released s' = s_released s ->
  counts_ok c (length (s_blocks s')) (s_old s') (s_cur s') (s_new s') (s_released s') (s_tbr s') ->
  HI c s0 s' R.
Proof.
  intros A F SA ET ER C. pose proof SA as (E1 & E2 & _ & _ & E5).
  split; [exact (AInv_same c s s' R SA A)|]. split; [apply CInv_counts; exact C|].
  apply (Fr_same s0 s s'); assumption.
Qed.

Lemma fbs_release_ok c s0 R : forall fuel s, HI c s0 s R ->
  HI c s0 (fbs_release c fuel s) R /\
  (N.to_nat (s_tbr s - s_released s) < fuel ->
   (s_tbr (fbs_release c fuel s) <= s_released (fbs_release c fuel s))%N).
Proof.
  induction fuel as [|f IH]; intros s H; cbn [fbs_release]; [split; [exact H | lia]|].
  destruct (N.ltb (s_released s) (s_tbr s)) eqn:E; [|split; [exact H | intros _; apply N.ltb_ge; exact E]].
  apply N.ltb_lt in E. destruct H as [A [C F]]. apply CInv_counts in C.
  destruct (pop_front_spec c s0 s R A F) as (A1 & F1 & Eo & Ec & En & Et & Hb).
  set (s1 := pop_front c s) in *.
  destruct (s_blocks s) as [|b rest] eqn:EB.
  { destruct C as (_ & _ & C3 & _). cbn [length] in C3. lia. }
  destruct Hb as [Hb Hr]. cbn [length] in C. pose proof C as (C1 & _).
  assert (G : forall o cu n, length rest = o + cu + n /\ cu <= s_cur s /\ cu + n <= s_cur s + s_new s ->
            HI c s0 (upd_counts s1 o cu n) R).
  { intros o cu n (Hl & H1 & H2).
    apply (HI_recount c s0 s1); [exact A1 | exact F1 | same_tac | reflexivity | reflexivity |].
    sred. rewrite Hb, Hr, Et. exact (counts_pop _ _ _ _ _ _ _ C _ _ _ _ E eq_refl Hl H1 H2). }
  (* whichever counter gives up the block, the next round starts one release further on *)
  match goal with |- context [fbs_release c f ?X] => set (s2 := X) end.
  assert (X : HI c s0 s2 R /\ s_released s2 = (s_released s + 1)%N /\ s_tbr s2 = s_tbr s).
  { unfold s2. rewrite Eo, Ec, En.
    destruct (s_old s) as [|o] eqn:EO; [destruct (s_cur s) as [|cu] eqn:EC|];
      (split; [|exact (conj Hr Et)]).
    - unfold reset_alloc. apply HI_upd_alloc. apply G; lia.
    - apply G; lia.
    - apply G; lia. }
  destruct X as (H2 & Er & Et2). destruct (IH s2 H2) as [I1 I2]. split; [exact I1|].
  intros Hf. apply I2. rewrite Er, Et2. lia.
Qed.

Definition grow_need (c : config) (cu n : nat) : nat :=
  if c_mutable c then (if Nat.ltb n 1 then 1 else 0) else (c_cur c + c_new c) - (cu + n).

Lemma grow_need_dec c cu n : grow_new c cu n = true -> grow_need c cu (S n) < grow_need c cu n.
Proof.
  unfold grow_new, grow_need. destruct (c_mutable c); intros G.
  - rewrite G. apply Nat.ltb_lt in G. destruct (Nat.ltb_spec (S n) 1); lia.
  - apply Nat.ltb_lt in G. lia.
Qed.

Lemma grow_need_bound c cu n : 1 <= c_new c -> grow_need c cu n <= c_cur c + c_new c.
Proof. unfold grow_need. destruct (c_mutable c); [destruct (Nat.ltb n 1)|]; lia. Qed.

Lemma fbs_grow_ok c s0 R : forall fuel s, HI c s0 s R ->
  HI c s0 (snd (fbs_grow c fuel s)) R /\
  (fst (fbs_grow c fuel s) = true -> grow_need c (s_cur s) (s_new s) < fuel ->
   grow_new c (s_cur (snd (fbs_grow c fuel s))) (s_new (snd (fbs_grow c fuel s))) = false).
Proof.
  induction fuel as [|f IH]; intros s H; cbn [fbs_grow].
  { split; [exact H|]. intros _ X. lia. }
  destruct (grow_new c (s_cur s) (s_new s)) eqn:EG.
  2:{ cbn [fst snd]. split; [exact H|]. intros _ _. exact EG. }
  destruct (push_back c s) as [s1|] eqn:EP.
  2:{ cbn [fst snd]. split; [exact H|]. discriminate. }
  destruct H as [A [C F]]. apply CInv_counts in C.
  destruct (push_back_spec c s0 s R s1 A F EP) as (A1 & F1 & (Eo & Ec & En & Er & Et) & b & Hb & _).
  set (s2 := upd_counts s1 (s_old s1) (s_cur s1) (S (s_new s1))).
  assert (H2 : HI c s0 s2 R).
  { apply (HI_recount c s0 s1); [exact A1 | exact F1 | same_tac | reflexivity | reflexivity |].
    unfold s2. sred. rewrite Hb, app_length, Nat.add_1_r, Eo, Ec, En, Er, Et.
    exact (counts_push_new _ _ _ _ _ _ _ C EG). }
  destruct (IH s2 H2) as [I1 I2]. split; [exact I1|].
  intros Hok Hn. apply I2; [exact Hok|].
  unfold s2. sred. rewrite Ec, En.
  eapply Nat.lt_le_trans; [apply grow_need_dec; exact EG | apply Nat.lt_succ_r; exact Hn].
Qed.

Definition fresh (b : block) : Prop := b_cursor b = 0%N.

Lemma add_succ_mid a b k : a + S b + k = a + b + S k.
Proof. lia. Qed.

Lemma skipn_S_tl {T} n (l : list T) : skipn n (tl l) = skipn (S n) l.
Proof. destruct l; [destruct n; reflexivity | reflexivity]. Qed.

Lemma Forall_skipn_app {T} (P : T -> Prop) n l1 l2 :
  Forall P (skipn n l1) -> Forall P l2 -> Forall P (skipn n (l1 ++ l2)).
Proof.
  intros H1 H2. rewrite skipn_app. apply Forall_app. split; [exact H1|].
  rewrite <- (firstn_skipn (n - length l1) l2) in H2. apply Forall_app in H2. apply H2.
Qed.

Lemma has_space_fresh c s n size : (size <= c_bs c)%N -> n < length (s_blocks s) ->
  Forall fresh (skipn n (s_blocks s)) -> has_space c s n size = true.
Proof.
  intros Hs Hn Hf. unfold has_space.
  destruct (nth_error (s_blocks s) n) as [b|] eqn:EN; [|apply nth_error_None in EN; lia].
  destruct (nth_error_split _ _ EN) as (l1 & l2 & E1 & E2).
  rewrite E1, <- E2, skipn_app, skipn_all, Nat.sub_diag in Hf. inversion Hf as [|? ? Fb _].
  unfold fresh in Fb. rewrite Fb. apply N.leb_le. lia.
Qed.

(** The state with which loop 3 goes round again after a PushBack that gave
    [s1]: the new block list is that of [s] with a fresh block appended, seen
    one position further on (the block that was the first new one has become
    current, or old, and then the oldest block may have been popped). *)
Definition rotated (c : config) (s1 : state) : state :=
  if grow_cur c (s_cur s1) then upd_counts s1 (s_old s1) (S (s_cur s1)) (s_new s1)
  else
    let s3 := upd_counts s1 (S (s_old s1)) (s_cur s1) (s_new s1) in
    if Nat.ltb (c_old c) (s_old s3) then
      let s4 := pop_front c s3 in
      let s5 := upd_counts s4 (pred (s_old s4)) (s_cur s4) (s_new s4) in
      upd_rel s5 (s_released s5) (N.max (s_tbr s5) (s_released s5))
    else s3.

Lemma rotated_ok c s0 s R s1 : HI c s0 s R -> push_back c s = Some s1 ->
  HI c s0 (rotated c s1) R /\ s_new (rotated c s1) = s_new s /\
  exists b, fresh b /\ forall k,
    skipn (s_old (rotated c s1) + s_cur (rotated c s1) + k) (s_blocks (rotated c s1)) =
    skipn (s_old s + s_cur s + S k) (s_blocks s ++ [b]).
Proof.
  intros [A [C F]] EP. apply CInv_counts in C.
  destruct (push_back_spec c s0 s R s1 A F EP) as (A1 & F1 & (Eo & Ec & En & Er & Et) & b & Hb & Hfb).
  assert (Lb : length (s_blocks s1) = S (length (s_blocks s))) by (rewrite Hb, app_length, Nat.add_1_r; reflexivity).
  unfold rotated. destruct (grow_cur c (s_cur s1)) eqn:EGC.
  - split; [|split; [exact En|]].
    + apply (HI_recount c s0 s1); [exact A1 | exact F1 | same_tac | reflexivity | reflexivity |].
      sred. rewrite Ec in EGC. rewrite Lb, Eo, Ec, En, Er, Et. exact (counts_push_cur _ _ _ _ _ _ _ C EGC).
    + exists b. split; [exact Hfb|]. intros k. sred. rewrite Eo, Ec, Hb, add_succ_mid. reflexivity.
  - set (s3 := upd_counts s1 (S (s_old s1)) (s_cur s1) (s_new s1)).
    assert (C3 : counts_ok c (length (s_blocks s1)) (S (s_old s)) (s_cur s) (s_new s) (s_released s) (s_tbr s)).
    { rewrite Lb. exact (counts_push_old _ _ _ _ _ _ _ C). }
    destruct (Nat.ltb (c_old c) (s_old s3)) eqn:EO.
    + assert (A3 : AInv c s3 R) by (eapply AInv_same; [|exact A1]; same_tac).
      assert (F3 : Fr s0 s3) by (eapply Fr_same; [..|exact F1]; reflexivity).
      destruct (pop_front_spec c s0 s3 R A3 F3) as (A4 & F4 & Eo4 & Ec4 & En4 & Et4 & Hb4).
      set (s4 := pop_front c s3) in *. unfold s3 in Hb4, Eo4, Ec4, En4, Et4. sred.
      destruct (s_blocks s1) as [|b0 rest] eqn:EL; [discriminate|]. destruct Hb4 as [Hb4 Hr4].
      split; [|split; [sred; rewrite En4; exact En|]].
      * apply (HI_recount c s0 s4); [exact A4 | exact F4 | same_tac | reflexivity | reflexivity |].
        sred. rewrite Hb4, Hr4, Eo4, Ec4, En4, Et4, Eo, Ec, En, Er, Et. cbn [pred].
        exact (counts_pop_old _ _ _ _ _ _ _ C3).
      * exists b. split; [exact Hfb|]. intros k. sred. rewrite Hb4, Eo4, Ec4, Eo, Ec, <- Hb. cbn [pred].
        rewrite Nat.add_succ_r. reflexivity.
    + split; [|split; [exact En|]].
      * apply (HI_recount c s0 s1); [exact A1 | exact F1 | same_tac | reflexivity | reflexivity |].
        unfold s3. sred. rewrite Eo, Ec, En, Er, Et. exact C3.
      * exists b. split; [exact Hfb|]. intros k. unfold s3. sred. rewrite Eo, Ec, Hb, (Nat.add_succ_r _ k). reflexivity.
Qed.

(** Loop 3 ends with space in the first new block: the new blocks from some
    position [j] on are fresh, every round moves them one position towards
    the front, and at [j = 0] the first new block itself is fresh. *)
Lemma fbs_rotate_ok c s0 R size : 1 <= desired_new c -> (size <= c_bs c)%N ->
  forall fuel s, HI c s0 s R -> 1 <= s_new s ->
  (exists j, Forall fresh (skipn (s_old s + s_cur s + j) (s_blocks s)) /\ j < fuel) ->
  let r := fbs_rotate c fuel size s in
  HI c s0 (snd r) R /\ 1 <= s_new (snd r) /\
  (fst r = true -> has_space c (snd r) (s_old (snd r) + s_cur (snd r)) size = true).
Proof.
  intros Hd Hsz. induction fuel as [|f IH]; intros s H Hn (j & J2 & J3); [lia|].
  cbn [fbs_rotate].
  destruct (has_space c s (s_old s + s_cur s) size) eqn:EH.
  { cbn [fst snd]. auto. }
  destruct j as [|j].
  { exfalso. rewrite Nat.add_0_r in J2. destruct H as [_ [[C1 _ _ _] _]].
    rewrite (has_space_fresh c s _ size Hsz) in EH;
      [discriminate | rewrite C1; apply Nat.lt_add_pos_r; exact Hn | exact J2]. }
  apply Nat.succ_lt_mono in J3.
  destruct (Nat.ltb (desired_new c) (s_new s)) eqn:ED.
  - (* a surplus new block becomes current *)
    apply Nat.ltb_lt in ED. apply IH.
    + unfold reset_alloc. apply HI_upd_alloc. destruct H as [A [C F]]. apply CInv_counts in C.
      apply (HI_recount c s0 s); [exact A | exact F | same_tac | reflexivity | reflexivity |].
      exact (counts_new_cur _ _ _ _ _ _ _ C ED).
    + sred. apply Nat.lt_le_pred. exact (Nat.le_lt_trans _ _ _ Hd ED).
    + exists j. sred. split; [|exact J3].
      rewrite add_succ_mid. exact J2.
  - destruct (push_back c s) as [s1|] eqn:EP.
    2:{ cbn [fst snd]. split; [exact H|]. split; [exact Hn | discriminate]. }
    destruct (rotated_ok c s0 s R s1 H EP) as (H2 & N2 & b & Fb & K2).
    apply (IH (reset_alloc (rotated c s1))).
    + unfold reset_alloc. apply HI_upd_alloc. exact H2.
    + unfold reset_alloc. sred. rewrite N2. exact Hn.
    + exists j. unfold reset_alloc. sred. split; [|exact J3].
      rewrite K2. apply Forall_skipn_app; [exact J2 | constructor; [exact Fb | constructor]].
Qed.

Lemma pow2_pos k : 1 <= Nat.pow 2 k.
Proof. induction k; cbn [Nat.pow]; lia. Qed.

(** rounds left until the search is back at the first new block *)
Definition pick_dist (n i : nat) : nat := if Nat.eqb i 0 then 0 else n - i.

Lemma pick_dist_le n i : pick_dist n i <= n.
Proof. unfold pick_dist. destruct (Nat.eqb i 0); lia. Qed.

Lemma pick_dist_next n i : i <> 0 -> i < n -> pick_dist n (S i mod n) < pick_dist n i.
Proof.
  intros H0 Hi. unfold pick_dist. apply Nat.eqb_neq in H0. rewrite H0.
  destruct (Nat.eq_dec (S i) n) as [E|E].
  - rewrite E, Nat.mod_same by lia. cbn [Nat.eqb]. lia.
  - rewrite Nat.mod_small by lia. cbn [Nat.eqb]. lia.
Qed.

Definition pick_good (c : config) (size : N) (s : state) (r : option (nat * state)) : Prop :=
  exists idx s', r = Some (idx, s') /\ aeq s s' /\ has_space c s' idx size = true.

Lemma pick_good_here c size s a i : has_space c s (s_old s + s_cur s + i) size = true ->
  pick_good c size s (Some (s_old s + s_cur s + i, upd_alloc s a (Some i))).
Proof.
  intros EH. exists (s_old s + s_cur s + i), (upd_alloc s a (Some i)). split; [reflexivity|].
  split; [apply aeq_upd_alloc|]. rewrite (has_space_aeq c s); [exact EH | apply aeq_upd_alloc].
Qed.

Lemma pick_good_upd c size s a i r : pick_good c size (upd_alloc s a i) r -> pick_good c size s r.
Proof.
  intros (idx & s' & E1 & E2 & E3). exists idx, s'. split; [exact E1|]. split; [|exact E3].
  eapply aeq_trans; [apply aeq_upd_alloc | exact E2].
Qed.

Lemma fbs_pick_A c size : forall fuel s i,
  has_space c s (s_old s + s_cur s) size = true ->
  1 <= s_attempts s -> s_aidx s = Some i -> i < s_new s -> pick_dist (s_new s) i < fuel ->
  pick_good c size s (fbs_pick c fuel size s).
Proof.
  induction fuel as [|f IH]; intros s i H0 Ha Ei Hi Hd; [lia|].
  cbn [fbs_pick]. rewrite Ei. destruct (s_attempts s) as [|a]; [lia|].
  destruct (has_space c s (s_old s + s_cur s + i) size) eqn:EH; [apply pick_good_here; exact EH|].
  assert (Hi0 : i <> 0) by (intros ->; rewrite Nat.add_0_r in EH; congruence).
  pose proof (pick_dist_next (s_new s) i Hi0 Hi) as Hd'.
  eapply pick_good_upd. apply (IH _ (S i mod s_new s)); sred.
  - exact H0.
  - destruct (Nat.leb _ _); apply pow2_pos.
  - reflexivity.
  - apply Nat.mod_upper_bound. lia.
  - lia.
Qed.

Lemma fbs_pick_ok c size fuel s :
  1 <= s_new s -> has_space c s (s_old s + s_cur s) size = true -> s_new s + 1 < fuel ->
  pick_good c size s (fbs_pick c fuel size s).
Proof.
  intros Hn H0 Hf. destruct fuel as [|f]; [lia|]. cbn [fbs_pick].
  (* whatever the first round does, the next one starts inside the new blocks *)
  assert (ADV : forall oi, let i' := match oi with None => 0 | Some i => S i mod s_new s end in
            forall at', pick_good c size s
              (fbs_pick c f size (upd_alloc s (if Nat.leb (s_new s - desired_new c) i' then Nat.pow 2 at' else Nat.pow 2 (desired_new c)) (Some i')))).
  { intros oi i' at'. eapply pick_good_upd. apply (fbs_pick_A c size f _ i'); sred.
    - exact H0.
    - destruct (Nat.leb _ _); apply pow2_pos.
    - reflexivity.
    - unfold i'. destruct oi; [apply Nat.mod_upper_bound; lia | lia].
    - apply (Nat.le_lt_trans _ _ _ (pick_dist_le _ _)). apply Nat.succ_lt_mono. rewrite <- Nat.add_1_r. exact Hf. }
  destruct (s_attempts s) as [|a]; [apply ADV|].
  destruct (s_aidx s) as [i|]; [|apply (ADV None)].
  destruct (has_space c s (s_old s + s_cur s + i) size) eqn:EH; [apply pick_good_here; exact EH|].
  apply (ADV (Some i)).
Qed.

Lemma fuel_of_new s : s_new s < fuel_of s.
Proof. unfold fuel_of. lia. Qed.

Lemma find_block_with_space_ok c s0 s R size : wfc c -> HI c s0 s R ->
  HI c s0 (snd (find_block_with_space c s size)) R /\
  match fst (find_block_with_space c s size) with
  | Ok idx => has_space c (snd (find_block_with_space c s size)) idx size = true
  | Err e => e = cInvalidArgument \/ e = cUnavailable
  end.
Proof.
  intros W H. pose proof W as (W1 & W2 & W3). unfold find_block_with_space.
  destruct (N.ltb (c_bs c) size) eqn:ES.
  { cbn [fst snd]. split; [exact H | left; reflexivity]. }
  apply N.ltb_ge in ES.
  destruct (fbs_release_ok c s0 R (S (length (s_blocks s))) s H) as [H1 _].
  set (s1 := fbs_release c (S (length (s_blocks s))) s) in *.
  destruct (fbs_grow_ok c s0 R (S (c_cur c + c_new c)) s1 H1) as [H2 G2].
  destruct (fbs_grow c (S (c_cur c + c_new c)) s1) as [ok2 s2]. cbn [fst snd] in *.
  destruct ok2.
  2:{ cbn [fst snd]. split; [exact H2 | right; reflexivity]. }
  assert (GN : grow_new c (s_cur s2) (s_new s2) = false).
  { apply G2; [reflexivity|]. apply Nat.lt_succ_r. apply grow_need_bound. exact W2. }
  assert (N2 : 1 <= s_new s2).
  { unfold grow_new in GN. destruct H2 as [_ [[_ _ _ C4] _]]. destruct (c_mutable c).
    - apply Nat.ltb_ge in GN. exact GN.
    - apply Nat.ltb_ge in GN. specialize (C4 eq_refl). lia. }
  assert (L2 : length (s_blocks s2) = s_old s2 + s_cur s2 + s_new s2) by (destruct H2 as [_ [[C1 _ _ _] _]]; exact C1).
  destruct (fbs_rotate_ok c s0 R size W3 ES (fuel_of s2) s2 H2 N2) as (H3 & N3 & G3).
  { exists (s_new s2). split.
    - rewrite <- L2, skipn_all. constructor.
    - apply fuel_of_new. }
  destruct (fbs_rotate c (fuel_of s2) size s2) as [ok3 s3]. cbn [fst snd] in *.
  destruct ok3.
  2:{ cbn [fst snd]. split; [exact H3 | right; reflexivity]. }
  specialize (G3 eq_refl).
  destruct (fbs_pick_ok c size (S (S (s_new s3)) * 2) s3 N3 G3) as (idx & s4 & E1 & E2 & E3); [lia|].
  rewrite E1. cbn [fst snd]. split; [|exact E3]. eapply HI_aeq; eauto.
Qed.

Lemma has_space_nth c s idx size : has_space c s idx size = true ->
  exists b, nth_error (s_blocks s) idx = Some b.
Proof. unfold has_space. destruct (nth_error (s_blocks s) idx); [eexists; reflexivity | discriminate]. Qed.

Lemma ocn_put_ok c s0 s R size : wfc c -> HI c s0 s R ->
  match fst (ocn_put c s size) with
  | Ok wr => HI c s0 (snd (ocn_put c s size)) (wr_uid wr :: R)
  | Err e => HI c s0 (snd (ocn_put c s size)) R /\ (e = cInvalidArgument \/ e = cUnavailable)
  end.
Proof.
  intros W H. unfold ocn_put.
  destruct (find_block_with_space_ok c s0 s R size W H) as [H1 G1].
  destruct (find_block_with_space c s size) as [[idx|e] s1]; cbn [fst snd] in *.
  2:{ split; assumption. }
  destruct (has_space_nth _ _ _ _ G1) as [b Eb]. rewrite Eb. cbn [fst snd].
  pose proof H1 as [[A1 _ _ _ _ _] _].
  assert (Hin : In b (s_blocks s1)) by (eapply nth_error_In; eauto).
  assert (Hz : ~ In (b_uid b) (map b_uid (s_zombies s1))).
  { intros X. apply (NoDup_app_disj _ _ (b_uid b) A1); [apply in_map; exact Hin | exact X]. }
  set (f := fun x => set_use (set_cursor x (b_cursor x + size)) (S (b_use x))).
  fold f.
  replace (upd_blocks s1 (map_uid f (b_uid b) (s_blocks s1)) (s_zombies s1))
     with (upd_blocks s1 (map_uid f (b_uid b) (s_blocks s1)) (map_uid f (b_uid b) (s_zombies s1)))
     by (rewrite (map_uid_none f (b_uid b) (s_zombies s1) Hz); reflexivity).
  apply HI_pin_gen; auto. apply uids_blocks. exact Hin.
Qed.

Lemma finalize_spec c s0 s R wr ok : HI c s0 s (wr_uid wr :: R) ->
  HI c s0 (snd (finalize c s wr ok)) R /\
  s_next_uid (snd (finalize c s wr ok)) = s_next_uid s /\
  match fst (finalize c s wr ok) with Err e => (0 < e)%Z | Ok _ => True end.
Proof.
  intros H. unfold finalize. apply HI_unpin in H. pose proof (nu_unpin c s (wr_uid wr)) as N.
  destruct (negb ok); [|destruct (N.ltb _ _)]; cbn [fst snd].
  - split; [exact H|]. split; [exact N | reflexivity].
  - split; [exact H|]. split; [exact N | reflexivity].
  - split; [exact H|]. split; [exact N | exact I].
Qed.

Lemma read_validated_ok w s0 s R o uid l : (l_abs l < tot s)%N -> HI (w_cfg w) s0 s R ->
  HI (w_cfg w) s0 (snd (read_validated w s o uid l)) R /\
  s_next_uid (snd (read_validated w s o uid l)) = s_next_uid s.
Proof.
  intros Hl H. unfold read_validated.
  destruct (c_validate (w_cfg w) && negb (bytes_eqb _ _)); cbn [fst snd]; (split; [|reflexivity]); [|exact H].
  apply HI_bump_negs. destruct H as [A [C F]]. split; [|split].
  - eapply AInv_same; [|exact A]. same_tac.
  - destruct C as [C1 C2 C3 C4]. unfold tot in Hl. constructor; sred; auto; lia.
  - eapply Fr_same; [..|exact F]; reflexivity.
Qed.
