(** C04 proofs: unpin, pop_front, push_back preserve the invariant. *)
From Coq Require Import List NArith ZArith Bool Arith Lia Permutation.
From Coq Require Import ZifyN ZifyNat ZifyBool.
From BBS Require Import Store.Model Store.Wf Store.P04Base.
Import ListNotations.
Local Open Scope nat_scope.

Definition tot (s : state) : N := (s_released s + N.of_nat (length (s_blocks s)))%N.

Lemma Fr_step s0 s s' : Fr s0 s -> s_threads s' = s_threads s -> s_next_uid s <= s_next_uid s' ->
  (forall b', In b' (allb s') ->
     (exists b, In b (allb s) /\ b_uid b = b_uid b' /\ b_region b = b_region b') \/ s_next_uid s <= b_uid b') ->
  (tot s <= tot s')%N -> Fr s0 s'.
Proof.
  intros [F1 F2 F3 F4] ET EN HB HT. unfold tot in HT. constructor.
  - congruence.
  - lia.
  - intros b' Hb' Hlt. destruct (HB b' Hb') as [[b [B1 [B2 B3]]]|Hn]; [|lia].
    destruct (F3 b B1) as [b0 [X1 [X2 X3]]]; [lia|]. exists b0. split; [exact X1|]. split; congruence.
  - lia.
Qed.

Lemma in_allb_l s b : In b (s_blocks s) -> In b (allb s).
Proof. intros H. apply in_or_app. left. exact H. Qed.
Lemma in_allb_r s b : In b (s_zombies s) -> In b (allb s).
Proof. intros H. apply in_or_app. right. exact H. Qed.

Lemma uids_blocks s b : In b (s_blocks s) -> In (b_uid b) (uids s).
Proof. intros H. apply in_or_app. left. apply in_map. exact H. Qed.
Lemma uids_zombies s b : In b (s_zombies s) -> In (b_uid b) (uids s).
Proof. intros H. apply in_or_app. right. apply in_map. exact H. Qed.

(** use counts: pin, the allocation in ocn_put, unpin of a block that stays *)
Lemma HI_map_use c s0 s R R' uid f :
  (forall b, b_uid (f b) = b_uid b) -> (forall b, b_region (f b) = b_region b) ->
  (forall u, u <> uid -> cnt R' u = cnt R u) ->
  (forall b, In b (s_blocks s) -> b_uid b = uid -> b_use (f b) = S (cnt R' uid)) ->
  (forall z, In z (s_zombies s) -> b_uid z = uid -> b_use (f z) = cnt R' uid /\ 1 <= b_use (f z)) ->
  (forall u, In u R' -> In u (uids s)) ->
  HI c s0 s R ->
  HI c s0 (upd_blocks s (map_uid f uid (s_blocks s)) (map_uid f uid (s_zombies s))) R'.
Proof.
  intros Hfu Hfr Hne Hb Hz HR' [[A1 A2 A3 A4 A5 A6] [C F]].
  assert (EU : uids (upd_blocks s (map_uid f uid (s_blocks s)) (map_uid f uid (s_zombies s))) = uids s).
  { unfold uids. sred. rewrite !(map_map_uid b_uid) by exact Hfu. reflexivity. }
  assert (NDb : NoDup (map b_uid (s_blocks s))) by (unfold uids in A1; apply NoDup_app_l in A1; exact A1).
  assert (NDz : NoDup (map b_uid (s_zombies s))) by (unfold uids in A1; apply NoDup_app_r in A1; exact A1).
  split; [|split].
  - constructor; try rewrite EU; auto.
    + intros r. specialize (A3 r). unfold rc, rcl in *. sred.
      rewrite !(map_map_uid b_region) by exact Hfr. exact A3.
    + sred. intros b Hb'. apply (In_map_uid f uid _ _ NDb Hfu) in Hb'.
      destruct Hb' as [[H1 H2]|[y [H1 [H2 H3]]]].
      * rewrite (A4 _ H1), Hne by exact H2. reflexivity.
      * subst b. rewrite Hfu, H2. apply Hb; assumption.
    + sred. intros z Hz'. apply (In_map_uid f uid _ _ NDz Hfu) in Hz'.
      destruct Hz' as [[H1 H2]|[y [H1 [H2 H3]]]].
      * destruct (A5 _ H1) as [E1 E2]. rewrite Hne by exact H2. auto.
      * subst z. rewrite Hfu, H2. apply Hz; assumption.
  - destruct C as [C1 C2 C3 C4]. constructor; sred; rewrite ?map_uid_length; auto.
  - apply (Fr_step s0 s); auto; unfold tot; sred; rewrite ?map_uid_length; try lia.
    intros b' Hb'. left. unfold allb in Hb'. sred.
    apply in_app_or in Hb'. destruct Hb' as [Hb'|Hb'].
    + apply (In_map_uid f uid _ _ NDb Hfu) in Hb'. destruct Hb' as [[H1 H2]|[y [H1 [H2 H3]]]].
      * exists b'. split; [apply in_allb_l; exact H1 | auto].
      * exists y. split; [apply in_allb_l; exact H1 | subst b'; auto].
    + apply (In_map_uid f uid _ _ NDz Hfu) in Hb'. destruct Hb' as [[H1 H2]|[y [H1 [H2 H3]]]].
      * exists b'. split; [apply in_allb_r; exact H1 | auto].
      * exists y. split; [apply in_allb_r; exact H1 | subst b'; auto].
Qed.

Lemma cnt_cons_ne R uid u : u <> uid -> cnt (uid :: R) u = cnt R u.
Proof. intros Hu. rewrite cnt_cons. apply Nat.eqb_neq in Hu. rewrite Nat.eqb_sym in Hu. rewrite Hu. reflexivity. Qed.
Lemma cnt_cons_eq R uid : cnt (uid :: R) uid = S (cnt R uid).
Proof. rewrite cnt_cons, Nat.eqb_refl. reflexivity. Qed.

Lemma HI_pin_gen c s0 s R uid f :
  (forall b, b_uid (f b) = b_uid b) -> (forall b, b_region (f b) = b_region b) ->
  (forall b, b_use (f b) = S (b_use b)) ->
  In uid (uids s) -> HI c s0 s R ->
  HI c s0 (upd_blocks s (map_uid f uid (s_blocks s)) (map_uid f uid (s_zombies s))) (uid :: R).
Proof.
  intros Hfu Hfr Hfs Hin H. pose proof H as [[_ _ _ A4 A5 A6] _].
  apply (HI_map_use c s0 s R); try assumption.
  - apply cnt_cons_ne.
  - intros b Hb Eu. rewrite Hfs, (A4 _ Hb), Eu, cnt_cons_eq. reflexivity.
  - intros z Hz Eu. destruct (A5 _ Hz) as [E1 E2]. rewrite Hfs, E1, Eu, cnt_cons_eq. split; [reflexivity | lia].
  - intros u [Hu|Hu]; [subst; exact Hin | auto].
Qed.

Lemma HI_pin c s0 s R uid : In uid (uids s) -> HI c s0 s R -> HI c s0 (pin s uid) (uid :: R).
Proof. apply HI_pin_gen; reflexivity. Qed.

(** a block object without references disappears; on a block device its
    region returns to the free list *)
Lemma drop_block c s0 s s1 R R' x :
  AInv c s R -> Fr s0 s ->
  Permutation (allb s) (x :: allb s1) ->
  s_free s1 = s_free s -> s_next_region s1 = s_next_region s -> s_next_uid s1 = s_next_uid s ->
  s_threads s1 = s_threads s -> (tot s <= tot s1)%N ->
  (forall b, In b (s_blocks s1) -> b_use b = S (cnt R' (b_uid b))) ->
  (forall z, In z (s_zombies s1) -> b_use z = cnt R' (b_uid z) /\ 1 <= b_use z) ->
  (forall u, In u R' -> In u (uids s) /\ u <> b_uid x) ->
  AInv c (if in_memory c then s1 else upd_free s1 (s_free s1 ++ [b_region x])) R' /\
  Fr s0 (if in_memory c then s1 else upd_free s1 (s_free s1 ++ [b_region x])).
Proof.
  intros [A1 A2 A3 _ _ _] F P EF ER EN ET HT Hb Hz HR.
  assert (PU : Permutation (uids s) (b_uid x :: uids s1)).
  { rewrite !uids_allb. exact (Permutation_map b_uid P). }
  assert (Hrc : forall r, rcl (s_blocks s) r + rcl (s_zombies s) r =
                (if Nat.eqb (b_region x) r then 1 else 0) + (rcl (s_blocks s1) r + rcl (s_zombies s1) r)).
  { intros r. rewrite <- !rcl_app. fold (allb s) (allb s1). rewrite (rcl_perm _ _ r P), rcl_cons. reflexivity. }
  assert (N1 : NoDup (uids s1)).
  { apply (Permutation_NoDup PU) in A1. inversion A1; assumption. }
  assert (N2 : forall u, In u (uids s1) -> u < s_next_uid s1).
  { intros u Hu. rewrite EN. apply A2. eapply Permutation_in; [apply Permutation_sym; exact PU | right; exact Hu]. }
  assert (N6 : forall u, In u R' -> In u (uids s1)).
  { intros u Hu. destruct (HR u Hu) as [H1 H2]. eapply Permutation_in in H1; [|exact PU].
    destruct H1 as [H1|H1]; [congruence | exact H1]. }
  assert (F1 : Fr s0 s1).
  { apply (Fr_step s0 s); auto; [lia|]. intros b' Hb'. left. exists b'. split; [|auto].
    eapply Permutation_in; [apply Permutation_sym; exact P | right; exact Hb']. }
  destruct (in_memory c) eqn:Em.
  - split; [|exact F1]. constructor; auto.
    intros r. specialize (A3 r). specialize (Hrc r). rewrite Em in *. unfold rc in *. rewrite EF, ER. lia.
  - split; [|apply (Fr_same s0 s1); auto].
    constructor; auto.
    intros r. specialize (A3 r). specialize (Hrc r). rewrite Em in *. unfold rc in *. sred.
    rewrite cnt_app, cnt_cons, cnt_nil, EF. lia.
Qed.

Lemma HI_unpin c s0 s R uid : HI c s0 s (uid :: R) -> HI c s0 (unpin c s uid) R.
Proof.
  intros H. pose proof H as [[A1 A2 A3 A4 A5 A6] [C F]].
  set (f := fun b => set_use b (pred (b_use b))).
  assert (NDz : NoDup (map b_uid (s_zombies s))) by (unfold uids in A1; apply NoDup_app_r in A1; exact A1).
  pose proof (fun u => cnt_cons_ne R uid u) as Hne. pose proof (cnt_cons_eq R uid) as Heq.
  pose proof (fun u Hu => eq_sym (Hne u Hu)) as Hne'.
  assert (HR : forall u, In u R -> In u (uids s)) by (intros u Hu; apply A6; right; exact Hu).
  unfold unpin. destruct (find_uid uid (s_blocks s)) as [b0|] eqn:Eb.
  - (* listed block: no zombie has this uid *)
    destruct (find_uid_some _ _ _ Eb) as [Hb0 Ub0]. fold f.
    assert (Hnz : ~ In uid (map b_uid (s_zombies s))).
    { intros Hz. apply (NoDup_app_disj _ _ uid A1); [|exact Hz]. rewrite <- Ub0. apply in_map. exact Hb0. }
    rewrite <- (map_uid_none f uid (s_zombies s) Hnz).
    apply (HI_map_use c s0 s (uid :: R)); try reflexivity; try assumption.
    + intros b Hb Eu. unfold f. sred. rewrite (A4 _ Hb), Eu, Heq. reflexivity.
    + intros z Hz Eu. exfalso. apply Hnz. rewrite <- Eu. apply in_map. exact Hz.
  - apply find_uid_none in Eb.
    assert (Hnb : forall b, In b (s_blocks s) -> b_uid b <> uid).
    { intros b Hb Hu. apply Eb. rewrite <- Hu. apply in_map. exact Hb. }
    destruct (find_uid uid (s_zombies s)) as [z0|] eqn:Ez.
    + destruct (find_uid_some _ _ _ Ez) as [Hz0 Uz0].
      destruct (A5 _ Hz0) as [Ez1 Ez2]. rewrite Uz0, Heq in Ez1.
      destruct (Nat.leb (b_use z0) 1) eqn:Eu.
      * (* last reference of a zombie: the zombie disappears *)
        apply Nat.leb_le in Eu. assert (Ec0 : cnt R uid = 0) by lia.
        change (fun z : block => negb (Nat.eqb (b_uid z) uid)) with (not_uid uid).
        set (Z' := filter (not_uid uid) (s_zombies s)).
        assert (PZ : Permutation (s_zombies s) (z0 :: Z')) by (apply filter_uid_perm; assumption).
        destruct (drop_block c s0 s (upd_blocks s (s_blocks s) Z') (uid :: R) R z0) as [A' F'];
          try reflexivity; try assumption.
        -- apply H.
        -- unfold allb. sred. rewrite PZ. apply Permutation_sym, Permutation_middle.
        -- sred. intros b Hb. rewrite (A4 _ Hb), Hne by (apply Hnb; exact Hb). reflexivity.
        -- sred. intros z Hz. apply In_filter_uid in Hz. destruct Hz as [Hz Hu].
           destruct (A5 _ Hz) as [E1 E2]. rewrite Hne in E1 by exact Hu. auto.
        -- intros u Hu. split; [apply HR; exact Hu | rewrite Uz0; intros ->; apply cnt_In in Hu; lia].
        -- split; [exact A'|]. split; [|exact F'].
           destruct C as [C1 C2 C3 C4]. destruct (in_memory c); constructor; sred; auto.
      * (* a zombie that stays referenced: no listed block has this uid *)
        apply Nat.leb_gt in Eu. fold f.
        rewrite <- (map_uid_none f uid (s_blocks s) Eb).
        apply (HI_map_use c s0 s (uid :: R)); try reflexivity; try assumption.
        -- intros b Hb Hu. exfalso. exact (Hnb b Hb Hu).
        -- intros z Hz Hu. rewrite (find_uid_nodup uid _ z NDz Hz Hu) in Ez. injection Ez as ->.
           unfold f. sred. lia.
    + exfalso. apply find_uid_none in Ez.
      assert (X : In uid (uids s)) by (apply A6; left; reflexivity).
      apply in_app_or in X. tauto.
Qed.

Lemma nu_unpin c s uid : s_next_uid (unpin c s uid) = s_next_uid s.
Proof.
  unfold unpin. destruct (find_uid uid (s_blocks s)); [reflexivity|].
  destruct (find_uid uid (s_zombies s)); [|reflexivity].
  destruct (Nat.leb _ _); [destruct (in_memory c)|]; reflexivity.
Qed.
Lemma pop_front_spec c s0 s R : AInv c s R -> Fr s0 s ->
  AInv c (pop_front c s) R /\ Fr s0 (pop_front c s) /\
  s_old (pop_front c s) = s_old s /\ s_cur (pop_front c s) = s_cur s /\ s_new (pop_front c s) = s_new s /\
  s_tbr (pop_front c s) = s_tbr s /\
  match s_blocks s with
  | [] => pop_front c s = s
  | b :: rest => s_blocks (pop_front c s) = rest /\ s_released (pop_front c s) = (s_released s + 1)%N
  end.
Proof.
  intros AI F. pose proof AI as [A1 A2 A3 A4 A5 A6]. unfold pop_front.
  destruct (s_blocks s) as [|b rest] eqn:EB.
  { split; [exact AI|]. split; [exact F|]. repeat split; reflexivity. }
  rewrite <- EB in A4.
  assert (Hb : In b (s_blocks s)) by (rewrite EB; left; reflexivity).
  assert (Hrest : forall x, In x rest -> In x (s_blocks s)) by (intros x Hx; rewrite EB; right; exact Hx).
  assert (Eub : b_use b = S (cnt R (b_uid b))) by (apply A4; exact Hb).
  set (s1 := upd_rel s (s_released s + 1) (s_tbr s)).
  destruct (Nat.leb (b_use b) 1) eqn:Eu.
  - (* unreferenced: the block object disappears *)
    apply Nat.leb_le in Eu. assert (Ec0 : cnt R (b_uid b) = 0) by lia.
    destruct (drop_block c s0 s (upd_blocks s1 rest (s_zombies s1)) R R b) as [A' F'];
      try reflexivity; try assumption.
    + unfold allb, s1. sred. rewrite EB. apply Permutation_refl.
    + unfold tot, s1. sred. rewrite EB. cbn [length]. lia.
    + sred. intros x Hx. apply A4. apply Hrest. exact Hx.
    + intros u Hu. split; [apply A6; exact Hu | intros ->; apply cnt_In in Hu; lia].
    + split; [exact A'|]. split; [exact F'|].
      destruct (in_memory c); unfold s1; sred; repeat split; reflexivity.
  - (* still referenced: becomes a zombie *)
    apply Nat.leb_gt in Eu.
    set (b' := set_use b (pred (b_use b))).
    set (s2 := upd_blocks s1 rest (s_zombies s1 ++ [b'])).
    assert (PU : Permutation (uids s) (uids s2)).
    { unfold uids, s2, s1. sred. rewrite EB. cbn [map]. rewrite map_app. cbn [map]. unfold b'. sred.
      cbn [app]. rewrite app_assoc. apply Permutation_cons_append. }
    split; [|split].
    + constructor.
      * eapply Permutation_NoDup; eauto.
      * intros u Hu. unfold s2, s1. sred. apply A2. eapply Permutation_in; [apply Permutation_sym; exact PU | exact Hu].
      * intros r. specialize (A3 r). unfold rc in *. unfold s2, s1. sred. rewrite EB, rcl_cons in A3.
        rewrite rcl_app, rcl_cons, rcl_nil. unfold b'. sred. destruct (in_memory c); lia.
      * unfold s2. sred. intros x Hx. apply A4. apply Hrest. exact Hx.
      * unfold s2, s1. sred. intros z Hz. apply in_app_or in Hz. destruct Hz as [Hz|[Hz|[]]]; [auto|].
        subst z. unfold b'. sred. lia.
      * intros u Hu. eapply Permutation_in; [exact PU | apply A6; exact Hu].
    + apply (Fr_step s0 s); auto; unfold tot, s2, s1; sred; try (rewrite EB; cbn [length]; lia).
      intros x Hx. left. unfold allb in *. sred. rewrite EB. apply in_app_or in Hx. destruct Hx as [Hx|Hx].
      * exists x. split; [right; apply in_or_app; left; exact Hx | auto].
      * apply in_app_or in Hx. destruct Hx as [Hx|[Hx|[]]].
        -- exists x. split; [right; apply in_or_app; right; exact Hx | auto].
        -- exists b. split; [left; reflexivity | subst x; auto].
    + unfold s2, s1. sred. repeat split; reflexivity.
Qed.

Definition pushed (s : state) (r : nat) (fr : list nat) (nr : nat) (d : list (nat * list N)) : state :=
  {| s_blocks := s_blocks s ++ [{| b_uid := s_next_uid s; b_region := r; b_cursor := 0; b_use := 1 |}];
     s_zombies := s_zombies s; s_free := fr; s_next_region := nr;
     s_next_uid := S (s_next_uid s); s_dev := d;
     s_old := s_old s; s_cur := s_cur s; s_new := s_new s;
     s_released := s_released s; s_tbr := s_tbr s; s_attempts := s_attempts s; s_aidx := s_aidx s;
     s_index := s_index s; s_threads := s_threads s; s_pushbacks := S (s_pushbacks s); s_negs := s_negs s |}.

Lemma push_gen c s0 s R r fr nr d : AInv c s R -> Fr s0 s ->
  (forall x, (if in_memory c
              then (if Nat.eqb r x then 1 else 0) + (rcl (s_blocks s) x + rcl (s_zombies s) x + cnt fr x)
                   <= (if Nat.ltb x nr then 1 else 0)
              else (if Nat.eqb r x then 1 else 0) + cnt fr x = cnt (s_free s) x)) ->
  AInv c (pushed s r fr nr d) R /\ Fr s0 (pushed s r fr nr d).
Proof.
  intros [A1 A2 A3 A4 A5 A6] F Hreg.
  assert (Hfresh : ~ In (s_next_uid s) (uids s)).
  { intros H. apply A2 in H. lia. }
  assert (Hc0 : cnt R (s_next_uid s) = 0).
  { apply cnt_notin. intros H. apply Hfresh. apply A6. exact H. }
  assert (PU : Permutation (s_next_uid s :: uids s) (uids (pushed s r fr nr d))).
  { unfold uids, pushed. sred. rewrite map_app. cbn [map b_uid]. rewrite <- app_assoc. cbn [app]. apply Permutation_middle. }
  split.
  - constructor.
    + eapply Permutation_NoDup; [exact PU|]. constructor; assumption.
    + intros u Hu. eapply Permutation_in in Hu; [|apply Permutation_sym; exact PU].
      unfold pushed. sred. destruct Hu as [Hu|Hu]; [lia|]. apply A2 in Hu. lia.
    + intros x. specialize (A3 x). specialize (Hreg x). unfold rc in *. unfold pushed. sred.
      rewrite rcl_app, rcl_cons, rcl_nil. sred.
      destruct (in_memory c); lia.
    + unfold pushed. sred. intros x Hx. apply in_app_or in Hx. destruct Hx as [Hx|[Hx|[]]]; [auto|].
      subst x. sred. rewrite Hc0. reflexivity.
    + exact A5.
    + intros u Hu. eapply Permutation_in; [exact PU|]. right. apply A6. exact Hu.
  - apply (Fr_step s0 s); auto; unfold tot, pushed; sred; try lia.
    + intros x Hx. unfold allb in *. sred. rewrite <- app_assoc in Hx. apply in_app_or in Hx.
      destruct Hx as [Hx|Hx]; [left; exists x; split; [apply in_or_app; left; exact Hx | auto]|].
      cbn [app] in Hx. destruct Hx as [Hx|Hx].
      * right. subst x. sred. lia.
      * left. exists x. split; [apply in_or_app; right; exact Hx | auto].
    + rewrite app_length. cbn [length]. lia.
Qed.

Lemma ltb_S_cases n x :
  (if Nat.ltb x (S n) then 1 else 0) = (if Nat.eqb n x then 1 else 0) + (if Nat.ltb x n then 1 else 0).
Proof.
  destruct (Nat.eqb_spec n x); destruct (Nat.ltb_spec x n); destruct (Nat.ltb_spec x (S n)); lia.
Qed.

Lemma push_back_spec c s0 s R s' : AInv c s R -> Fr s0 s -> push_back c s = Some s' ->
  AInv c s' R /\ Fr s0 s' /\ same_cnt s s' /\
  exists b, s_blocks s' = s_blocks s ++ [b] /\ b_cursor b = 0%N.
Proof.
  intros AI F. pose proof AI as [A1 A2 A3 A4 A5 A6]. unfold push_back, new_block.
  assert (G : forall r fr nr d, s' = pushed s r fr nr d ->
     AInv c (pushed s r fr nr d) R /\ Fr s0 (pushed s r fr nr d) ->
     AInv c s' R /\ Fr s0 s' /\ same_cnt s s' /\
     exists b, s_blocks s' = s_blocks s ++ [b] /\ b_cursor b = 0%N).
  { intros r fr nr d E [H1 H2]. subst s'. split; [exact H1|]. split; [exact H2|].
    unfold pushed. sred. repeat split; try reflexivity. eexists. split; reflexivity. }
  destruct (in_memory c) eqn:Em.
  - intros E. injection E as E'.
    apply (G (s_next_region s) (s_free s) (S (s_next_region s)) (dev_set (s_dev s) (s_next_region s) (zeros (c_bs c))));
      [symmetry; exact E'|]. apply push_gen; auto.
    intros x. rewrite Em. specialize (A3 x). rewrite Em in A3. unfold rc in A3.
    rewrite ltb_S_cases. lia.
  - destruct (s_free s) as [|r rest] eqn:EF; [discriminate|].
    intros E. injection E as E'.
    apply (G r rest (s_next_region s)
             (match dev_get (s_dev s) r with [] => dev_set (s_dev s) r (zeros (c_bs c)) | _ => s_dev s end));
      [symmetry; exact E'|]. apply push_gen; auto.
    intros x. rewrite Em, EF. rewrite cnt_cons. reflexivity.
Qed.
