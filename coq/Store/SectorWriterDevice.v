(** Store/SectorWriterDevice.v — [completed_writer_data_on_device]: once a writer has been
    given all bytes of its allocation and has flushed, the device holds its data in its
    byte range, in every later state (whatever other writers — active, abandoned, allocated
    later in the same sector — do).

    Invariant [dinv]: for every writer, every byte that is "on the device" ([ondev]: all
    bytes of a flushed writer; for an active/abandoned writer the bytes already written by
    private sector writes or by the write of its completed first sector) equals the data
    given to Write.  It is carried
    - through private sector writes: they lie inside the writer's own BYTE range
      (not only its sector span), which is disjoint from every other writer's range;
    - through writes of a shared-sector image: every such write happens in a sector that
      contains a boundary point x (start or end of the writing writer's range) strictly
      inside it; a byte of that sector that is [ondev] for some writer u is then [copied]
      ([ondev_copied]), so by [shared_sector_accumulates] the image holds u's data there. *)
From Coq Require Import List Arith ZArith Bool Lia.
From BBS Require Import Store.SectorWriter Store.SectorWriterProofs Store.SectorWriterSpec
  Store.SectorWriterCommute Store.SectorWriterArith Store.SectorWriterInv Store.SectorWriterAccum.
Import ListNotations.

Section Dev.
Variable c : cfg.
Hypothesis HS : 1 <= c_sector c.
Local Notation SS := (c_sector c).
Local Notation A := (c_base c * c_sector c).

Definition ondev (t : thread) (pos : nat) : Prop :=
  t_status t = Flushed \/
  (w_first (t_w t) = None /\ pos - t_start t + length (w_partial (t_w t)) < length (t_data t)).

Definition holds (P : nat -> Prop) (dev : list byte) (ts : list thread) : Prop :=
  forall j t pos, nth_error ts j = Some t -> t_start t <= pos < t_end t -> ondev t pos -> P pos ->
    nth (A + pos) dev 0%Z = nth (pos - t_start t) (t_data t) 0%Z.

Definition dinv (s : state) : Prop := holds (fun _ => True) (st_dev s) (st_threads s).

Definition devlen (s : state) : Prop := (c_base c + c_spb c) * SS <= length (st_dev s).

Lemma holds_upd P dev ts k t t' extra :
  holds P dev ts -> nth_error ts k = Some t ->
  t_start t' = t_start t -> t_size t' = t_size t -> t_data t' = t_data t ++ extra -> t_status t = Active ->
  (forall pos, t_start t <= pos < t_end t -> ondev t' pos -> P pos -> ondev t pos) ->
  holds P dev (upd ts k t').
Proof.
  intros Hh Hk Es Ez Ed Hact Hon' j u pos Hj Hr Hon HP.
  assert (Hklt : k < length ts) by (apply nth_error_Some; congruence).
  destruct (Nat.eq_dec j k) as [->|Hne].
  - rewrite nth_error_upd_eq in Hj by exact Hklt. inversion Hj; subst u; clear Hj.
    unfold t_end in Hr. rewrite Es, Ez in Hr. rewrite Es. pose proof (Hon' pos Hr Hon HP) as Hold.
    rewrite Ed, app_nth1; [exact (Hh k t pos Hk Hr Hold HP)|].
    destruct Hold as [Hf|[_ Hlt]]; [congruence|lia].
  - rewrite nth_error_upd_ne in Hj by congruence. exact (Hh j u pos Hj Hr Hon HP).
Qed.

Lemma holds_private P dev ts k t w' extra pre0 priv :
  holds P dev ts -> nth_error ts k = Some t ->
  (forall j u, j <> k -> nth_error ts j = Some u -> t_end u <= t_start t \/ t_end t <= t_start u) ->
  t_status t = Active -> priv_writes c t w' (t_data t ++ extra) pre0 priv ->
  length (t_data t ++ extra) <= t_size t -> A + t_end t <= length dev ->
  (forall pos, t_start t <= pos < t_start t + length pre0 -> P pos -> ondev t pos) ->
  holds P (apply_writes dev priv)
    (upd ts k {| t_w := w'; t_start := t_start t; t_size := t_size t; t_data := t_data t ++ extra;
                 t_first0 := t_first0 t; t_status := Active |}).
Proof.
  intros Hh Hk Hdis Hact (Hf & _ & Ed & Hct & _) Hfit Hlen Hlow j u pos Hj Hr Hon HP.
  rewrite (contig_apply _ _ _ Hct).
  assert (Hklt : k < length ts) by (apply nth_error_Some; congruence).
  pose proof Ed as El. apply (f_equal (@length _)) in El. rewrite !app_length in El. rewrite app_length in Hfit.
  destruct (Nat.eq_dec j k) as [->|Hne].
  - rewrite nth_error_upd_eq in Hj by exact Hklt. inversion Hj; subst u; clear Hj.
    unfold t_end in Hr. cbn [t_start t_size t_data t_w] in *.
    destruct Hon as [Hfl|[_ Hon]]; [discriminate|]. cbn [t_start t_data t_w] in Hon. rewrite app_length in Hon.
    destruct (lt_dec pos (t_start t + length pre0)) as [Hlo|Hhi].
    + pose proof (Hlow pos ltac:(lia) HP) as Hold.
      rewrite nth_write_at_out by lia. rewrite app_nth1; [exact (Hh k t pos Hk Hr Hold HP)|].
      destruct Hold as [Hfl|[_ Hlt]]; [congruence|lia].
    + rewrite nth_write_at_in by (unfold t_end in Hlen; lia).
      rewrite Ed, app_nth2, app_nth1 by lia. f_equal. lia.
  - rewrite nth_error_upd_ne in Hj by congruence.
    rewrite nth_write_at_out; [exact (Hh j u pos Hj Hr Hon HP)|].
    destruct (Hdis j u Hne Hj); unfold t_end in *; lia.
Qed.

Lemma holds_image dev ts q (img : list byte) :
  holds (fun pos => pos / SS <> q) dev ts -> length img = SS -> (c_base c + q + 1) * SS <= length dev ->
  (forall j u pos, nth_error ts j = Some u -> t_start u <= pos < t_end u -> ondev u pos -> pos / SS = q ->
     nth (pos mod SS) img 0%Z = nth (pos - t_start u) (t_data u) 0%Z) ->
  holds (fun _ => True) (write_at dev ((c_base c + q) * SS) img) ts.
Proof.
  intros Hh Hl Hlen Himg j u pos Hj Hr Hon _.
  destruct (Nat.eq_dec (pos / SS) q) as [E|E].
  - destruct (sec_at SS HS (c_base c) q pos E) as [Hb Hi].
    rewrite nth_write_at_in by lia. rewrite Hi. exact (Himg j u pos Hj Hr Hon E).
  - rewrite nth_write_at_out by (pose proof (sec_not_at SS HS (c_base c) q pos E); lia).
    exact (Hh j u pos Hj Hr Hon E).
Qed.

Lemma at_end images t : tinv c images t -> length (t_data t) = t_size t ->
  w_off (t_w t) = c_base c + t_end t / SS /\
  forall pos, t_start t <= pos < t_end t / SS * SS -> ondev t pos.
Proof.
  intros Htk Hn. destruct (w_first (t_w t)) as [id|] eqn:Hf.
  - destruct (wph_some _ _ _ _ Htk Hf) as (_ & _ & _ & _ & _ & _ & Hoff & _).
    destruct (at_end_some _ HS _ _ _ Htk Hf Hn) as [D _]. destruct (t_start_eq c HS t) as [Est _].
    rewrite D. split; [exact Hoff|]. intros pos Hr. lia.
  - destruct (at_end_none _ HS _ _ Htk Hf Hn) as (pre & Hpre & D & M & E).
    split; [exact D|]. intros pos Hr. right. split; [exact Hf|].
    rewrite Hpre, app_length. lia.
Qed.

(** a byte that is on the device and lies in a sector containing, strictly inside, a point
    that the writer's range does not straddle, has been copied into that sector's image *)
Lemma ondev_copied images u x pos :
  tinv c images u -> (t_status u = Flushed -> length (t_data u) = t_size u) ->
  x mod SS <> 0 -> (t_end u <= x \/ x <= t_start u) ->
  t_start u <= pos < t_end u -> pos / SS = x / SS -> ondev u pos -> copied c u pos.
Proof.
  intros Htu Hfl Hx Hside Hr Hsec Hon. pose proof Htu as (T1 & T2 & T3 & T4).
  destruct (sec_bounds SS HS x) as [X1 X2]. destruct (sec_split SS HS x) as [Xe Xu].
  destruct (sec_bounds SS HS pos) as [P1 P2]. rewrite Hsec in P1, P2.
  remember (x / SS) as sec eqn:Esec.
  assert (Hxs : sec * SS < x) by lia.
  assert (Hlen : pos - t_start u < length (t_data u)).
  { destruct Hon as [Hf|[_ Hlt]]; [rewrite (Hfl Hf); unfold t_end in Hr; lia|lia]. }
  assert (Hfirst : x <= t_start u -> t_first0 u <> None /\ pos / SS = t_fs c u).
  { intros Hle. destruct (sec_in SS HS sec (t_start u) ltac:(lia)) as [D M].
    split; [|unfold t_fs; rewrite D; exact Hsec].
    intros E. rewrite E in T2. unfold t_a in T2. lia. }
  destruct Hside as [Hle|Hge].
  2:{ left. destruct (Hfirst Hge). repeat split; assumption. }
  assert (Hdec : (t_first0 u <> None /\ pos / SS = t_fs c u) \/ ~ (t_first0 u <> None /\ pos / SS = t_fs c u)).
  { destruct (t_first0 u); [|right; intros [H _]; congruence].
    destruct (Nat.eq_dec (pos / SS) (t_fs c u)); [left; split; [discriminate|assumption]|right; tauto]. }
  destruct Hdec as [Hy|Hn]; [left; destruct Hy; repeat split; assumption|].
  right. split; [exact Hn|].
  assert (He : t_end u / SS = sec) by (apply (sec_in SS HS sec (t_end u)); lia).
  split; [congruence|].
  destruct Hon as [Hf|[Hwf Hlt]]; [exact Hf|]. exfalso.
  destruct (wph_none _ _ _ Htu Hwf) as (pre & Hpre & Hoff & Hr').
  assert (Hn' : length (t_data u) = length pre + length (w_partial (t_w u)))
    by (rewrite Hpre, app_length; reflexivity).
  assert (Hlt1 : (c_base c + sec) * SS < w_off (t_w u) * SS) by lia.
  apply (mul_lt_succ SS HS) in Hlt1.
  unfold t_end in *. lia.
Qed.

Lemma range_bound lo s j t :
  ainv c lo s -> nth_error (st_threads s) j = Some t -> t_end t <= c_spb c * SS.
Proof.
  intros (_ & Hch & He & Hin) Hj. pose proof (chained_bounds _ _ _ _ Hch Hj) as [_ Hb].
  assert (Hne : st_threads s <> []) by (intros E; rewrite E in Hj; destruct j; discriminate).
  specialize (Hin Hne). unfold t_end. lia.
Qed.

Lemma image_has_ondev lo s id k t x :
  ainv2 c lo s -> flinv s -> nth_error (st_threads s) k = Some t -> x = t_start t \/ x = t_end t ->
  id < length (st_images s) -> isec (st_images s) id = x / SS -> x mod SS <> 0 ->
  forall j u pos, nth_error (st_threads s) j = Some u -> t_start u <= pos < t_end u -> ondev u pos ->
    pos / SS = x / SS ->
    nth (pos mod SS) (img_data (st_images s) id) 0%Z = nth (pos - t_start u) (t_data u) 0%Z.
Proof.
  intros [(Ha & Hc & Ht) Hacc] Hfl Hk Hx Hid Hsec Hm j u pos Hj Hr Hon Hps.
  apply (Hacc id j u pos Hid Hj Hr); [congruence|].
  apply (ondev_copied (st_images s) u x pos); try assumption.
  - exact (Forall_nth_error _ _ _ _ Ht Hj).
  - exact (Forall_nth_error _ _ _ _ Hfl Hj).
  - (* no range straddles the start or the end of writer [k]'s range: the ranges are disjoint *)
    destruct (Nat.eq_dec j k) as [->|Hne].
    + rewrite Hk in Hj. inversion Hj; subst u. unfold t_end in *. lia.
    + destruct (order_cases _ _ _ _ _ _ _ Ha Hj Hk Hne); unfold t_end in *; lia.
Qed.

Lemma dinv_alloc s size s' log :
  dinv s -> step c s (EAlloc size) = Some (s', log) -> dinv s'.
Proof.
  intros Hd Hstep. destruct (step_alloc_shape _ _ _ _ _ Hstep) as (t0 & _ & Ed & Et & Hdat & Hact).
  intros j t pos Hj Hr Hon _. rewrite Ed. rewrite Et in Hj.
  destruct (lt_dec j (length (st_threads s))) as [Hjl|Hjl].
  - rewrite nth_error_app1 in Hj by exact Hjl. exact (Hd j t pos Hj Hr Hon I).
  - (* the new writer has nothing on the device *)
    destruct (j - length (st_threads s)) as [|i] eqn:Ej; rewrite nth_error_app2, Ej in Hj by lia;
      [|destruct i; discriminate].
    injection Hj as <-. destruct Hon as [H|[_ H]]; [congruence|rewrite Hdat in H; cbn in H; lia].
Qed.

Lemma dinv_abandon s k s' log :
  dinv s -> step c s (EAbandon k) = Some (s', log) -> dinv s'.
Proof.
  intros Hd Hstep.
  destruct (nth_error (st_threads s) k) as [t|] eqn:Hk; [|cbn in Hstep; rewrite Hk in Hstep; discriminate].
  destruct (proj1 (step_abandon_iff _ _ _ _ _ _ Hk) Hstep) as (Hst & _ & ->).
  apply (holds_upd _ _ _ k t _ [] Hd Hk); try reflexivity; [symmetry; apply app_nil_r|exact Hst|].
  intros pos _ [H|H] _; [discriminate|right; exact H].
Qed.

Lemma dinv_write lo s k t chunk s' log :
  ainv2 c lo s -> flinv s -> dinv s -> devlen s ->
  nth_error (st_threads s) k = Some t ->
  step c s (EWrite k chunk) = Some (s', log) -> dinv s'.
Proof.
  intros Hinv2 Hfl Hd Hlen Hk Hstep.
  pose proof (ainv2_step c HS _ _ _ _ _ Hinv2 Hstep) as Hinv2'.
  pose proof (flinv_step _ _ _ _ _ Hfl Hstep) as Hfl'.
  destruct Hinv2 as [(Ha & Hc & Ht) _]. pose proof (Forall_nth_error _ _ _ _ Ht Hk) as Htk.
  assert (Hklt : k < length (st_threads s)) by (apply nth_error_Some; congruence).
  assert (Hdev : A + t_end t <= length (st_dev s))
    by (pose proof (range_bound _ _ _ _ Ha Hk); unfold devlen in Hlen; lia).
  pose proof (fun j u Hne Hj => order_cases _ _ _ j k u t Ha Hj Hk Hne) as Hdis.
  destruct (t_start_eq c HS t) as [Est Ua].
  destruct (proj1 (step_write_iff _ _ _ _ _ _ _ Hk) Hstep) as (Hst & Hn & _ & Es'). clear Hstep.
  pose proof (write_outcome c HS _ _ _ chunk Hc Htk Hn) as Ho. cbv zeta in Es', Ho. destruct Ho as (_ & _ & _ & Ho).
  assert (Hn' : length (t_data t ++ chunk) <= t_size t) by (rewrite app_length; exact Hn).
  subst s'. unfold dinv. cbn [set_thread st_dev st_threads].
  destruct (w_first (t_w t)) as [id|] eqn:Hf.
  - destruct (wph_some _ _ _ _ Htk Hf) as (F0 & A0 & Hid & Hsec & _). destruct Ho as [Hil Ho].
    destruct (Nat.ltb_spec (t_x c t + length chunk) SS) as [Hshort|Hlong].
    + (* the first sector stays incomplete: no device write *)
      destruct Ho as [-> Hf']. apply (holds_upd _ _ _ k t _ chunk Hd Hk); try reflexivity; [exact Hst|].
      intros pos _ [H|[H _]]; [discriminate|cbn [t_w] in H; congruence].
    + (* the first sector is completed: its image is written, then private sectors *)
      destruct Ho as (pre0 & priv & -> & Hp0 & Hpw).
      pose proof (image_has_ondev lo _ id k _ (t_start t) Hinv2' Hfl'
                    (nth_error_upd_eq _ _ _ Hklt) (or_introl eq_refl)) as Himg.
      cbn [set_thread st_threads st_images] in Himg. rewrite write_images, Hf in Himg.
      rewrite set_img_length, isec_set_img, (img_data_set_img_eq _ _ _ Hid) in Himg.
      specialize (Himg Hid Hsec ltac:(unfold t_a in A0; lia)).
      rewrite apply_writes_cons. cbn [fst snd]. unfold t_x in Hlong.
      rewrite apply_writes_write_at.
      2:{ intros w2 Hin. left. destruct Hpw as (_ & _ & _ & Hct & _).
          pose proof (contig_range _ _ _ Hct Hin). lia. }
      apply holds_image; [|exact Hil|rewrite apply_writes_length; unfold t_end in Hdev; lia|exact Himg].
      apply (holds_private _ _ _ k t _ chunk pre0 priv); try assumption.
      * intros j u pos Hj Hr Hon _. exact (Hd j u pos Hj Hr Hon I).
      * intros pos Hr Hne. destruct (sec_in SS HS (t_fs c t) pos ltac:(lia)). contradiction.
  - (* no shared first sector (any more): private sector writes only *)
    destruct Ho as (pre0 & Hpre & Hpw). apply (holds_private _ _ _ k t _ chunk pre0 _ Hd); try assumption.
    intros pos Hr _. right. split; [exact Hf|]. rewrite Hpre, app_length. lia.
Qed.

Lemma dinv_flush lo s k t s' log :
  ainv2 c lo s -> flinv s -> dinv s -> devlen s ->
  nth_error (st_threads s) k = Some t ->
  step c s (EFlush k) = Some (s', log) -> dinv s'.
Proof.
  intros Hinv2 Hfl Hd Hlen Hk Hstep.
  pose proof (ainv2_step c HS _ _ _ _ _ Hinv2 Hstep) as Hinv2'.
  pose proof (flinv_step _ _ _ _ _ Hfl Hstep) as Hfl'.
  destruct Hinv2 as [(Ha & Hc & Ht) _].
  pose proof (Forall_nth_error _ _ _ _ Ht Hk) as Htk. pose proof Htk as (_ & _ & T3 & _). pose proof Hc as (C1 & _).
  assert (Hklt : k < length (st_threads s)) by (apply nth_error_Some; congruence).
  pose proof (range_bound _ _ _ _ Ha Hk) as Hrb. unfold devlen in Hlen.
  destruct (sec_split SS HS (t_end t)) as [Ee Ue]. clear Ha Hc Ht Hfl.
  destruct (proj1 (step_flush_iff _ _ _ _ _ _ Hk) Hstep) as (Hst & Hn & _ & Es'). clear Hstep. cbv zeta in Es'.
  destruct (at_end _ _ Htk Hn) as [Hwo Hbelow].
  destruct (w_last (t_w t)) as [idl|] eqn:Hl.
  - (* the last sector is shared: its image is written *)
    destruct T3 as (E0 & Hidl & Hsecl). specialize (C1 idl Hidl).
    rewrite (flush_some c (st_images s) (t_w t) idl Hl) in Es'. cbn [fst snd] in Es'. subst s'.
    unfold dinv. cbn [set_thread st_dev st_threads].
    set (img' := write_at (img_data (st_images s) idl) 0 (w_partial (t_w t))) in *.
    assert (Hil : length img' = SS) by (unfold img'; rewrite write_at_length; exact C1).
    pose proof (image_has_ondev lo _ idl k _ (t_end t) Hinv2' Hfl'
                  (nth_error_upd_eq _ _ _ Hklt) (or_intror eq_refl)) as Himg.
    cbn [set_thread st_threads st_images] in Himg.
    rewrite set_img_length, isec_set_img, (img_data_set_img_eq _ _ _ Hidl) in Himg.
    specialize (Himg Hidl Hsecl E0).
    rewrite apply_writes_cons. cbn [fst snd apply_writes fold_left]. rewrite Hil, Hwo.
    apply holds_image; [|exact Hil|pose proof (mul_lt_succ SS HS (t_end t / SS) (c_spb c) ltac:(lia)); lia|exact Himg].
    apply (holds_upd _ _ _ k t _ [] (fun j u pos Hj Hr Hon _ => Hd j u pos Hj Hr Hon I) Hk);
      try reflexivity; [symmetry; apply app_nil_r|exact Hst|].
    intros pos Hr _ Hne. apply Hbelow. split; [lia|]. apply (sec_below SS HS).
    pose proof (sec_mono SS HS pos (t_end t) ltac:(lia)). lia.
  - (* the allocation ends on a sector boundary: nothing to write *)
    rewrite (flush_none c (st_images s) (t_w t) Hl) in Es'. cbn [fst snd] in Es'. subst s'.
    apply (holds_upd _ _ _ k t _ [] Hd Hk); try reflexivity; [symmetry; apply app_nil_r|exact Hst|].
    intros pos Hr _ _. apply Hbelow. lia.
Qed.

Definition inv3 (lo : nat) (s : state) : Prop := ainv2 c lo s /\ flinv s /\ dinv s /\ devlen s.

Lemma step_dev_length s e s' log : step c s e = Some (s', log) -> length (st_dev s') = length (st_dev s).
Proof.
  intros Hstep. destruct (is_alloc e) eqn:Hal.
  - destruct e as [size| | |]; try discriminate.
    destruct (step_alloc_shape _ _ _ _ _ Hstep) as (t0 & _ & -> & _). reflexivity.
  - destruct (step_writer_shape _ _ _ _ _ Hstep Hal) as (k & t & t' & im' & _ & _ & -> & _).
    cbn [set_thread st_dev]. apply apply_writes_length.
Qed.

Lemma inv3_step lo s e s' log : inv3 lo s -> step c s e = Some (s', log) -> inv3 lo s'.
Proof.
  intros (H2 & Hfl & Hd & Hlen) Hstep.
  split; [eapply ainv2_step; eauto|]. split; [eapply flinv_step; eauto|]. split.
  - destruct e as [size|k ch|k|k]; [eapply dinv_alloc; eauto| | |eapply dinv_abandon; eauto];
      (destruct (nth_error (st_threads s) k) as [t|] eqn:Hk;
       [|cbn in Hstep; rewrite Hk in Hstep; discriminate]).
    + eapply dinv_write; eauto.
    + eapply dinv_flush; eauto.
  - unfold devlen in *. rewrite (step_dev_length _ _ _ _ Hstep). exact Hlen.
Qed.

Lemma inv3_init dev b : b_shared b = None -> (c_base c + c_spb c) * SS <= length dev ->
  inv3 (cpos c b) (init_state dev b).
Proof.
  intros Hb Hlen. split; [apply ainv2_init; assumption|split; [constructor|split; [|exact Hlen]]].
  intros j ? ? Hj. destruct j; discriminate.
Qed.

Lemma flushed_stable_step s e s' log k t :
  step c s e = Some (s', log) -> nth_error (st_threads s) k = Some t -> t_status t = Flushed ->
  nth_error (st_threads s') k = Some t.
Proof.
  intros Hstep Hk Hfl. destruct (is_alloc e) eqn:Hal.
  - destruct e as [size| | |]; try discriminate.
    destruct (step_alloc_shape _ _ _ _ _ Hstep) as (t0 & _ & _ & -> & _).
    rewrite nth_error_app1; [exact Hk|apply nth_error_Some; congruence].
  - destruct (step_writer_shape _ _ _ _ _ Hstep Hal) as (k' & u & u' & im' & Hk' & Hact & -> & _).
    cbn [set_thread st_threads]. rewrite nth_error_upd_ne; [exact Hk|].
    intros ->. rewrite Hk in Hk'. inversion Hk'; subst u. congruence.
Qed.

End Dev.

Lemma run_app c tr1 : forall tr2 s, run c s (tr1 ++ tr2) =
  match run c s tr1 with Some s1 => run c s1 tr2 | None => None end.
Proof.
  induction tr1 as [|e tr1 IH]; intros tr2 s; cbn; [reflexivity|].
  destruct (step c s e) as [[s1 l]|]; [apply IH|reflexivity].
Qed.

Lemma run_inv3 c dev b0 tr s : 1 <= c_sector c -> b_shared b0 = None ->
  (c_base c + c_spb c) * c_sector c <= length dev ->
  run c (init_state dev b0) tr = Some s -> inv3 c (cpos c b0) s.
Proof.
  intros HS Hb Hlen. exact (run_invariant c _ (inv3_step c HS _) tr _ _ (inv3_init c HS dev b0 Hb Hlen)).
Qed.
