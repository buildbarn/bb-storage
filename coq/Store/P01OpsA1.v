(** C01 proofs, library: bytes (slice / overwrite), block and position
    lookup (find_block / binfo / uid_at), the index lookups of the model,
    and the view of a state that the invariants read ([sview]). *)
From Coq Require Import List NArith ZArith Bool Arith Lia ZifyN ZifyNat ZifyBool.
From BBS Require Import Store.Model Store.P01Inv.
From BBS Require Export Store.Basics.
Import ListNotations.
Open Scope N_scope.

Lemma firstn_add : forall (A : Type) (a d : nat) (l : list A),
  firstn (a + d) l = firstn a l ++ firstn d (skipn a l).
Proof.
  intros A a d. induction a as [|a IH]; intros l.
  - reflexivity.
  - destruct l as [|x l].
    + cbn [Nat.add firstn skipn app]. destruct d; reflexivity.
    + cbn [Nat.add firstn skipn app]. f_equal. apply IH.
Qed.

Lemma slice_add : forall bytes off a d,
  slice bytes off (a + d) = slice bytes off a ++ slice bytes (off + a) d.
Proof.
  intros. rewrite !slice_eq, firstn_add, <- skipn_add. reflexivity.
Qed.

Lemma slice_cons_S : forall b t off len, slice (b :: t) (S off) len = slice t off len.
Proof. intros. rewrite !slice_eq. reflexivity. Qed.

Lemma slice_cons_0 : forall b t len, slice (b :: t) 0 (S len) = b :: slice t 0 len.
Proof. intros. rewrite !slice_eq. reflexivity. Qed.

Lemma slice_len0 : forall bytes off, slice bytes off 0 = [].
Proof. intros. rewrite slice_eq. reflexivity. Qed.

Lemma slice_nil : forall off len, slice [] off len = [].
Proof. intros. rewrite slice_eq. destruct off; destruct len; reflexivity. Qed.

Lemma overwrite_length : forall off bytes data,
  (off + length data <= length bytes)%nat -> length (overwrite bytes off data) = length bytes.
Proof.
  induction off as [|o IH]; intros bytes data H.
  - destruct bytes; cbn [overwrite]; rewrite app_length, skipn_length; cbn [length Nat.add] in *; lia.
  - destruct bytes as [|b t]; cbn [overwrite length] in *.
    + reflexivity.
    + rewrite IH by lia. reflexivity.
Qed.

Lemma overwrite_0 : forall bytes data, overwrite bytes 0 data = data ++ skipn (length data) bytes.
Proof. destruct bytes; reflexivity. Qed.

Lemma slice_overwrite_before : forall off bytes data off' len',
  (off' + len' <= off)%nat -> slice (overwrite bytes off data) off' len' = slice bytes off' len'.
Proof.
  induction off as [|o IH]; intros bytes data off' len' H.
  - assert (len' = 0)%nat by lia. subst. rewrite !slice_len0. reflexivity.
  - destruct bytes as [|b t]; cbn [overwrite].
    + reflexivity.
    + destruct off' as [|p].
      * destruct len' as [|n].
        -- rewrite !slice_len0. reflexivity.
        -- rewrite !slice_cons_0. f_equal. apply IH. lia.
      * rewrite !slice_cons_S. apply IH. lia.
Qed.

Lemma slice_overwrite_after : forall off bytes data off' len',
  (off + length data <= off')%nat -> slice (overwrite bytes off data) off' len' = slice bytes off' len'.
Proof.
  induction off as [|o IH]; intros bytes data off' len' H.
  - rewrite overwrite_0, !slice_eq. f_equal.
    rewrite skipn_app, (@skipn_all2 _ off' data) by lia. cbn [app].
    rewrite <- skipn_add. f_equal. lia.
  - destruct bytes as [|b t]; cbn [overwrite].
    + reflexivity.
    + destruct off' as [|p]; [lia|].
      rewrite !slice_cons_S. apply IH. lia.
Qed.

Lemma slice_overwrite_same : forall off bytes data,
  (off <= length bytes)%nat -> slice (overwrite bytes off data) off (length data) = data.
Proof.
  induction off as [|o IH]; intros bytes data H.
  - rewrite overwrite_0, slice_eq. cbn [skipn].
    rewrite <- (Nat.add_0_r (length data)), firstn_app_2. cbn [firstn]. apply app_nil_r.
  - destruct bytes as [|b t]; cbn [length] in H; [lia|].
    cbn [overwrite]. rewrite slice_cons_S. apply IH. lia.
Qed.

Lemma slice_overwrite_in : forall bytes off acc data,
  slice bytes off (length acc) = acc ->
  (off + length acc + length data <= length bytes)%nat ->
  slice (overwrite bytes (off + length acc) data) off (length acc + length data) = acc ++ data.
Proof.
  intros bytes off acc data Hacc Hlen.
  rewrite slice_add. f_equal.
  - rewrite slice_overwrite_before by lia. exact Hacc.
  - apply slice_overwrite_same. lia.
Qed.

Lemma find_uid_none : forall uid l, find_uid uid l = None -> ~ In uid (map b_uid l).
Proof. exact Basics.find_uid_none. Qed.

Lemma find_block_eq s uid : find_block s uid = find_uid uid (live s).
Proof.
  unfold find_block, live. rewrite find_uid_app.
  destruct (find_uid uid (s_blocks s)); reflexivity.
Qed.

Lemma find_block_some : forall s uid b, find_block s uid = Some b -> In b (live s) /\ b_uid b = uid.
Proof. intros s uid b. rewrite find_block_eq. apply find_uid_some. Qed.

Lemma find_block_live : forall s b, NoDup (map b_uid (live s)) -> In b (live s) ->
  find_block s (b_uid b) = Some b.
Proof. intros s b ND Hin. rewrite find_block_eq. apply find_uid_nodup; [exact ND|exact Hin|reflexivity]. Qed.

Lemma binfo_in : forall s uid cur reg, binfo s uid = Some (cur, reg) ->
  exists b, find_block s uid = Some b /\ In b (live s) /\ b_uid b = uid /\ b_cursor b = cur /\ b_region b = reg.
Proof.
  unfold binfo. intros s uid cur reg H. destruct (find_block s uid) as [b|] eqn:E; [|discriminate].
  inversion H; subst. exists b. destruct (find_block_some _ _ _ E). auto.
Qed.

Lemma binfo_live : forall s b, NoDup (map b_uid (live s)) -> In b (live s) ->
  binfo s (b_uid b) = Some (b_cursor b, b_region b).
Proof. intros. unfold binfo. rewrite find_block_live by assumption. reflexivity. Qed.

Lemma uid_at_some s abs uid :
  uid_at s abs = Some uid ->
  s_released s <= abs /\
  exists b, nth_error (s_blocks s) (N.to_nat (abs - s_released s)) = Some b /\ b_uid b = uid.
Proof.
  unfold uid_at. destruct (abs <? s_released s) eqn:E; [discriminate|].
  destruct (nth_error (s_blocks s) (N.to_nat (abs - s_released s))) as [b|] eqn:En; [|discriminate].
  intros H; inversion H; subst. split; [lia|]. exists b. auto.
Qed.

Lemma nrefs_cons uid c cl : nrefs uid (c :: cl) = (cref uid c + nrefs uid cl)%nat.
Proof. reflexivity. Qed.

Lemma binfo_region_inj : forall c s u1 u2 c1 c2 r,
  AInv c s -> binfo s u1 = Some (c1, r) -> binfo s u2 = Some (c2, r) -> u1 = u2.
Proof.
  intros c s u1 u2 c1 c2 r A H1 H2.
  apply binfo_in in H1. apply binfo_in in H2.
  destruct H1 as [b1 [_ [I1 [U1 [_ R1]]]]]. destruct H2 as [b2 [_ [I2 [U2 [_ R2]]]]].
  assert (b1 = b2).
  { apply (NoDup_map_inj b_region (live s)); try assumption.
    - eapply NoDup_app_l. apply (a_reg_nd _ _ A).
    - congruence. }
  subst. reflexivity.
Qed.

Lemma loc_valid_bounds : forall s l, loc_valid s l = true -> s_tbr s <= l_abs l /\ l_abs l < abs_end s.
Proof.
  unfold loc_valid, abs_end. intros s l H. apply andb_true_iff in H. destruct H as [H1 H2].
  apply N.leb_le in H1. apply N.ltb_lt in H2. split; assumption.
Qed.

Lemma block_of_loc_uid_at : forall s l b,
  block_of_loc s l = Some b -> s_released s <= l_abs l ->
  uid_at s (l_abs l) = Some (b_uid b) /\ In b (s_blocks s).
Proof.
  unfold block_of_loc, uid_at. intros s l b H R.
  assert (E : (l_abs l <? s_released s) = false) by (apply N.ltb_ge; exact R).
  rewrite E, H. split; [reflexivity|]. eapply nth_error_In. eassumption.
Qed.

Lemma rdisj_sym o1 s1 o2 s2 : rdisj o1 s1 o2 s2 -> rdisj o2 s2 o1 s1.
Proof. unfold rdisj; tauto. Qed.

(** the allocator invariant and the claim invariant only look at the (uid,
    region, cursor) views of the blocks, at the sum of the three counters and
    at seven further fields of the state *)

Record sview (s s' : state) : Prop := {
  v_blocks : map bview (s_blocks s') = map bview (s_blocks s);
  v_zombies : map bview (s_zombies s') = map bview (s_zombies s);
  v_free : s_free s' = s_free s;
  v_next_region : s_next_region s' = s_next_region s;
  v_next_uid : s_next_uid s' = s_next_uid s;
  v_dev : s_dev s' = s_dev s;
  v_len : (s_old s' + s_cur s' + s_new s' = s_old s + s_cur s + s_new s)%nat;
  v_released : s_released s' = s_released s;
  v_tbr : s_tbr s' = s_tbr s;
  v_index : s_index s' = s_index s;
}.

Lemma find_uid_view : forall u l l', map bview l' = map bview l ->
  option_map bview (find_uid u l') = option_map bview (find_uid u l).
Proof.
  induction l as [|b l IH]; intros [|b' l'] H; cbn [map] in H; try discriminate.
  - reflexivity.
  - assert (H1 : bview b' = bview b) by congruence.
    assert (H2 : map bview l' = map bview l) by congruence.
    cbn [find_uid].
    destruct (bview_inj _ _ H1) as [E _]. rewrite E.
    destruct (Nat.eqb (b_uid b) u).
    + cbn [option_map]. rewrite H1. reflexivity.
    + apply IH. exact H2.
Qed.

Section View.
  Variables s s' : state.
  Hypothesis V : sview s s'.

  Lemma sv_live : map bview (live s') = map bview (live s).
  Proof. unfold live. rewrite !map_app, (v_blocks _ _ V), (v_zombies _ _ V). reflexivity. Qed.

  Lemma sv_uids : map b_uid (live s') = map b_uid (live s).
  Proof. rewrite !map_bview_uid, sv_live. reflexivity. Qed.

  Lemma sv_regions : map b_region (live s') = map b_region (live s).
  Proof. rewrite !map_bview_region, sv_live. reflexivity. Qed.

  Lemma sv_in : forall b', In b' (live s') -> exists b, In b (live s) /\ bview b = bview b'.
  Proof.
    intros b' H. apply (in_map bview) in H. rewrite sv_live in H.
    apply in_map_iff in H. destruct H as [b [E H]]. exists b. auto.
  Qed.

  Lemma sv_len : length (s_blocks s') = length (s_blocks s).
  Proof. rewrite <- (map_length bview (s_blocks s')), (v_blocks _ _ V). apply map_length. Qed.

  Lemma sv_abs_end : abs_end s' = abs_end s.
  Proof. unfold abs_end. rewrite sv_len, (v_released _ _ V). reflexivity. Qed.

  Lemma sv_binfo : forall u, binfo s' u = binfo s u.
  Proof.
    intro u. unfold binfo. rewrite !find_block_eq.
    pose proof (find_uid_view u _ _ sv_live) as E.
    destruct (find_uid u (live s')) as [b'|]; destruct (find_uid u (live s)) as [b|];
      cbn [option_map] in E; try discriminate; [inversion E|]; reflexivity.
  Qed.

  Lemma sv_uid_at : forall a, uid_at s' a = uid_at s a.
  Proof.
    intro a. unfold uid_at. rewrite (v_released _ _ V).
    destruct (a <? s_released s); [reflexivity|].
    change (option_map b_uid (nth_error (s_blocks s') (N.to_nat (a - s_released s))) =
            option_map b_uid (nth_error (s_blocks s) (N.to_nat (a - s_released s)))).
    rewrite <- !nth_error_map, !map_bview_uid, (v_blocks _ _ V). reflexivity.
  Qed.

  Lemma sv_loc_valid : forall l, loc_valid s' l = loc_valid s l.
  Proof. intro l. unfold loc_valid. rewrite sv_len, (v_released _ _ V), (v_tbr _ _ V). reflexivity. Qed.

  Lemma AInv_view : forall c, AInv c s -> AInv c s'.
  Proof.
    intros c A. constructor.
    - rewrite sv_len, (v_len _ _ V). apply (a_len _ _ A).
    - rewrite sv_abs_end, (v_released _ _ V), (v_tbr _ _ V). apply (a_rel _ _ A).
    - rewrite sv_uids. apply (a_uid_nd _ _ A).
    - intros b' H. destruct (sv_in _ H) as [b [Hb E]]. destruct (bview_inj _ _ E) as [E1 _].
      rewrite (v_next_uid _ _ V), <- E1. apply (a_uid_lt _ _ A). exact Hb.
    - rewrite sv_regions, (v_free _ _ V). apply (a_reg_nd _ _ A).
    - intros M b' H. destruct (sv_in _ H) as [b [Hb E]]. destruct (bview_inj _ _ E) as [_ [E1 _]].
      rewrite (v_next_region _ _ V), <- E1. apply (a_reg_lt _ _ A M). exact Hb.
    - intros M. rewrite (v_free _ _ V). apply (a_free_im _ _ A M).
    - intros b' H. destruct (sv_in _ H) as [b [Hb E]]. destruct (bview_inj _ _ E) as [_ [_ E1]].
      rewrite <- E1. apply (a_cur _ _ A). exact Hb.
    - intros b' H. destruct (sv_in _ H) as [b [Hb E]]. destruct (bview_inj _ _ E) as [_ [E1 _]].
      rewrite (v_dev _ _ V), <- E1. apply (a_dev_live _ _ A). exact Hb.
    - intros r. rewrite (v_dev _ _ V), (v_free _ _ V). apply (a_dev_free _ _ A).
    - intros k l. rewrite (v_index _ _ V), sv_abs_end. apply (a_idx _ _ A).
  Qed.

  Lemma claim_ok_view : forall w c, claim_ok w s c -> claim_ok w s' c.
  Proof.
    intros w [wr acc|uid l o|wr o] H; cbn [claim_ok] in *.
    - unfold cw_ok in *. rewrite sv_binfo, sv_abs_end, sv_uid_at, (v_dev _ _ V), (v_released _ _ V). exact H.
    - unfold cr_ok in *. rewrite sv_binfo, (v_dev _ _ V). exact H.
    - unfold cu_ok in *.
      rewrite sv_binfo, sv_abs_end, sv_uid_at, (v_dev _ _ V), (v_tbr _ _ V), (v_next_uid _ _ V). exact H.
  Qed.

  Lemma idx_ok_view : forall w k l, idx_ok w s k l -> idx_ok w s' k l.
  Proof.
    intros w k l (uid & cur & reg & H1 & H2 & H3 & H4). exists uid, cur, reg.
    rewrite sv_binfo, sv_uid_at, (v_dev _ _ V). auto.
  Qed.

  Lemma CInv_view : forall w cl, CInv w cl s -> CInv w cl s'.
  Proof.
    intros w cl C. constructor.
    - intros c H. apply claim_ok_view. apply (c_claims _ _ _ C). exact H.
    - intros k l. rewrite (v_index _ _ V), sv_loc_valid. intros H1 H2.
      apply idx_ok_view. apply (c_idx _ _ _ C); assumption.
    - apply (c_sep _ _ _ C).
    - intros wr acc k l. rewrite (v_index _ _ V), sv_loc_valid, sv_uid_at. apply (c_sep_idx _ _ _ C).
  Qed.
End View.

Lemma DInv_view w cl s s' :
  sview s s' -> s_blocks s' = s_blocks s -> s_zombies s' = s_zombies s -> DInv w cl s -> DInv w cl s'.
Proof.
  intros V E1 E2 [A [U1 U2] C]. constructor.
  - eapply AInv_view; eassumption.
  - constructor; [rewrite E1; exact U1|rewrite E2; exact U2].
  - eapply CInv_view; eassumption.
Qed.
