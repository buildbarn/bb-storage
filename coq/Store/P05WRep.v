(** C05, idempotence: a repeated Get / single-digest FindMissing
    writes nothing.

    [settled w s o i]: object (o,i) has an index entry under one of its
    lookup keys at a location that is not old (in hierarchical mode: also
    under the canonical key).  The entry need not be valid any more.
    - a Get whose reader was obtained without a pending copy, a Get whose
      pending copy was completed by a successful consumption, and a
      single-digest FindMissing that reported the object present all leave
      the object settled;
    - settledness is preserved by every step that allocates no block
      ("not old" only changes when a block is pushed back; index entries
      are never removed);
    - in a settled state a Get-open or a single-digest FindMissing of the
      object allocates nothing and leaves the medium alone. *)
From Coq Require Import List NArith ZArith Bool Arith Lia Relations.
From Coq Require Import ZifyN ZifyNat ZifyBool.
From BBS Require Import Common.Sx Store.Model Store.Wf Store.WfTids Run.RStore Run.R01 Run.R05.
From BBS Require Import Store.P05Cnt Store.P05Frame Store.P05Ops Store.P05Step Store.P05Surv Store.P05Mon
                        Store.P05Inv Store.P05Main Store.P05Touch.
From BBS Require Import Store.P05WInv Store.P05WEnd.
Import ListNotations.
Open Scope N_scope.

Definition knonold (k : cnt) (T : N) : Prop := (T - k_rel k <? N.of_nat (k_old k)) = false.

Lemma catom_nonold c a b T : catom c a b -> k_pb b = k_pb a -> knonold a T -> knonold b T.
Proof.
  unfold knonold. destruct 1 as [k H|k|k H|k|k H|k H|k x]; [|try rewrite rot_pop_fields; kfields; lia..].
  destruct (release_fields k) as (F1 & F2 & F3 & _). unfold k_end in F2. rewrite F3. lia.
Qed.

Lemma creach_nonold c a b T : creach c a b -> k_pb b = k_pb a -> knonold a T -> knonold b T.
Proof.
  intros R. induction R as [x y H|x|x y z R1 IH1 R2 IH2]; intros E N.
  - eapply catom_nonold; eauto.
  - exact N.
  - pose proof (creach_mono _ _ _ R1) as M1. pose proof (creach_mono _ _ _ R2) as M2.
    unfold kmono in M1, M2. apply IH2; [lia|]. apply IH1; [lia|exact N].
Qed.

Definition settled (w : world) (s : state) (o i : nat) : Prop :=
  exists k0 l0, In k0 (lookup_keys w o i) /\ In (k0, l0) (s_index s) /\
    (c_hier (w_cfg w) = true -> In (canonical_key o, l0) (s_index s)) /\
    needs_refresh s l0 = false /\ l_abs l0 < s_released s + N.of_nat (length (s_blocks s)).

Lemma settled_frame w s s' o i :
  creach (w_cfg w) (proj s) (proj s') -> incl (s_index s) (s_index s') ->
  s_pushbacks s' = s_pushbacks s -> settled w s o i -> settled w s' o i.
Proof.
  intros R I E (k0 & l0 & A & B & C & D & F). exists k0, l0.
  split; [exact A|]. split; [apply I, B|]. split; [intros Hh; apply I, C, Hh|].
  split.
  - apply (creach_nonold _ _ _ (l_abs l0) R); [exact E|exact D].
  - pose proof (creach_mono _ _ _ R) as M. unfold kmono, k_end in M. cbn in M. lia.
Qed.

Lemma settled_step w s e o i :
  kinv (w_cfg w) (proj s) -> s_pushbacks (fst (step w s e)) = s_pushbacks s ->
  settled w s o i -> settled w (fst (step w s e)) o i.
Proof. intros K E. destruct (step_creach w s e K) as [R I]. apply settled_frame; auto. Qed.

Lemma settled_run w o i : forall es s,
  kinv (w_cfg w) (proj s) -> s_pushbacks (fst (run w s es)) = s_pushbacks s ->
  settled w s o i -> settled w (fst (run w s es)) o i.
Proof.
  induction es as [|e t IH]; intros s K E ST; [exact ST|].
  rewrite run_cons in *. destruct (step_creach w s e K) as [R _].
  pose proof (creach_kinv _ _ _ R K) as K1.
  pose proof (counters_monotone w (fst (step w s e)) t K1) as M. cbv zeta in M.
  apply creach_mono in R. unfold kmono in R. cbn in R.
  apply IH; [exact K1|lia|]. apply settled_step; [exact K|lia|exact ST].
Qed.

Lemma settled_of_placed w s o i T :
  (c_hier (w_cfg w) = true -> hinv s) ->
  placed w s o i T -> kfresh (proj s) T -> settled w s o i.
Proof.
  intros HH (k & l & A & B & C) (F1 & F2 & F3). unfold k_end in F3. cbn in F1, F2, F3. subst T.
  exists k, l. split; [exact A|]. split; [exact B|]. split.
  - intros Hh. destruct (lookup_keys_hier w o i k Hh A) as (a & ->).
    exact (proj1 (HH Hh) _ _ _ B).
  - split; [unfold needs_refresh; lia|lia].
Qed.

Lemma settled_lookup w s o i k l :
  settled w s o i -> least_specific s (lookup_keys w o i) = Some (k, l) ->
  needs_refresh s l = false \/
  (c_hier (w_cfg w) = true /\ exists cl, index_get s (canonical_key o) = Some cl /\ needs_refresh s cl = false).
Proof.
  intros (k0 & l0 & A & B & C & D & F) LS.
  apply least_specific_some in LS. destruct LS as [KI IG].
  pose proof (index_get_some _ _ _ IG) as [IN V].
  destruct (needs_refresh s l) eqn:NR; [right|left; reflexivity].
  destruct (loc_valid s l0) eqn:V0.
  - destruct (c_hier (w_cfg w)) eqn:Hh.
    + split; [reflexivity|].
      destruct (index_get_newest s (canonical_key o) l0 (C eq_refl) V0) as (cl & G & LE & _).
      exists cl. split; [exact G|]. unfold needs_refresh in *. lia.
    + exfalso. unfold lookup_keys in A, KI. rewrite Hh in A, KI.
      destruct A as [<-|[]]. destruct KI as [<-|[]].
      destruct (index_get_newest s _ l0 B V0) as (l' & G & LE & _).
      rewrite IG in G. inversion G; subst l'. unfold needs_refresh in *. lia.
  - exfalso. unfold loc_valid in V, V0. unfold needs_refresh in *. lia.
Qed.

Definition bsig (b : block) : nat * N := (b_uid b, b_cursor b).
Definition sigs (s : state) : list (nat * N) := map bsig (s_blocks s).

Lemma map_uid_sig f uid l : (forall b, bsig (f b) = bsig b) -> map bsig (map_uid f uid l) = map bsig l.
Proof.
  intros H. induction l as [|b t IH]; cbn; [reflexivity|].
  destruct (Nat.eqb (b_uid b) uid); cbn; [rewrite H|rewrite IH]; reflexivity.
Qed.
Lemma sigs_pin s uid : sigs (pin s uid) = sigs s.
Proof. unfold sigs, pin, upd_blocks; cbn [s_blocks]. apply map_uid_sig. reflexivity. Qed.
Lemma dev_pin s uid : s_dev (pin s uid) = s_dev s. Proof. reflexivity. Qed.
Lemma sigs_unpin c s uid : sigs (unpin c s uid) = sigs s.
Proof.
  unfold unpin. destruct (find_uid uid (s_blocks s)).
  - unfold sigs, upd_blocks; cbn [s_blocks]. apply map_uid_sig. reflexivity.
  - destruct (find_uid uid (s_zombies s)); [|reflexivity].
    destruct (Nat.leb (b_use b) 1); [destruct (in_memory c)|]; reflexivity.
Qed.
Lemma dev_unpin c s uid : s_dev (unpin c s uid) = s_dev s.
Proof.
  unfold unpin. destruct (find_uid uid (s_blocks s)); [reflexivity|].
  destruct (find_uid uid (s_zombies s)); [|reflexivity].
  destruct (Nat.leb (b_use b) 1); [destruct (in_memory c)|]; reflexivity.
Qed.

Lemma alloc_grew_false s0 s1 : sigs s1 = sigs s0 -> alloc_grew s0 s1 = false.
Proof.
  intros E. unfold alloc_grew. apply negb_false_iff. apply forallb_forall. intros b Hb.
  apply orb_true_iff. right. unfold blk_sig_in. apply existsb_exists.
  assert (I : In (bsig b) (sigs s0)) by (rewrite <- E; unfold sigs; apply in_map; exact Hb).
  unfold sigs in I. apply in_map_iff in I. destruct I as (b0 & E0 & H0).
  exists b0. split; [exact H0|]. unfold bsig in E0. inversion E0.
  rewrite Nat.eqb_refl, N.eqb_refl. reflexivity.
Qed.

(** "nothing allocated, medium untouched" *)
Definition quiet (s s' : state) : Prop := sigs s' = sigs s /\ s_dev s' = s_dev s.
Lemma quiet_refl s : quiet s s. Proof. split; reflexivity. Qed.
Lemma quiet_trans a b c : quiet a b -> quiet b c -> quiet a c.
Proof. intros [A1 A2] [B1 B2]. split; congruence. Qed.

Lemma owr_norefresh w s o l fk r s' :
  needs_refresh s l = false -> open_with_refresh w s o l fk = (r, s') ->
  quiet s s' /\ (forall t, r = Ok t -> exists u l0 f, t = TGet o u l0 None f).
Proof.
  intros NR H. unfold open_with_refresh in H.
  destruct (block_of_loc s l) as [b|]; [|inversion H; subst; split; [apply quiet_refl|intros; discriminate]].
  rewrite NR in H. inversion H; subst. split.
  - split; [apply sigs_pin|reflexivity].
  - intros t E; inversion E; subst. eauto.
Qed.

Lemma quiet_index_put s k l : quiet s (index_put s k l).
Proof. split; reflexivity. Qed.

Lemma sync_of_canonical s o k cl :
  index_get s (canonical_key o) = Some cl -> needs_refresh s cl = false ->
  sync_from_canonical s o k = Some (cl, index_put s k cl).
Proof. intros G N. unfold sync_from_canonical. rewrite G, N. reflexivity. Qed.

Lemma settled_get_open w s o i r s' :
  settled w s o i -> get_open w s o i = (r, s') ->
  quiet s s' /\ (forall t, r = Ok t -> exists u l f, t = TGet o u l None f).
Proof.
  intros ST H. unfold get_open in H.
  destruct (least_specific s (lookup_keys w o i)) as [[k l]|] eqn:LS.
  2:{ inversion H; subst. split; [apply quiet_refl|intros; discriminate]. }
  destruct (settled_lookup w s o i k l ST LS) as [NR|(Hh & cl & G & NC)].
  - rewrite NR in H. cbn [negb] in H. exact (owr_norefresh _ _ _ _ _ _ _ NR H).
  - destruct (needs_refresh s l) eqn:NR; cbn [negb] in H; [|exact (owr_norefresh _ _ _ _ _ _ _ NR H)].
    rewrite Hh in H. rewrite (sync_of_canonical s o k cl G NC) in H.
    apply owr_norefresh in H; [|exact NC].
    destruct H as [Q HT]. split; [eapply quiet_trans; [apply quiet_index_put|exact Q]|exact HT].
Qed.

Lemma quiet_thr_set s s' tid t : quiet s s' -> quiet s (thr_set s' tid t).
Proof. intros [A B]. split; [exact A|exact B]. Qed.

Lemma pending_refresh_set s tid t :
  pending_refresh (thr_set s tid t) tid = match t with TGet _ _ _ (Some _) _ => true | _ => false end.
Proof. unfold pending_refresh. rewrite thr_get_set, Nat.eqb_refl. reflexivity. Qed.

Theorem settled_step_get_open w s tid o i s1 mo :
  settled w s o i -> step w s (OGetOpen tid o i) = (s1, mo) ->
  quiet s s1 /\ (mo = Parked -> pending_refresh s1 tid = false).
Proof.
  intros ST ES.
  destruct (step_getopen w s tid o i s1 mo ES) as [[-> ->]|[(e & GO & ->)|(t & s0 & GO & -> & ->)]].
  - split; [apply quiet_refl|discriminate].
  - apply settled_get_open in GO; [|exact ST]. split; [exact (proj1 GO)|discriminate].
  - apply settled_get_open in GO; [|exact ST]. destruct GO as [Q HT].
    split; [apply quiet_thr_set; exact Q|]. intros _.
    destruct (HT t eq_refl) as (u & l & f & ->). rewrite pending_refresh_set. reflexivity.
Qed.

Lemma settled_fm_refresh_one w s o i r s' :
  settled w s o i -> fm_refresh_one w s o i = (r, s') ->
  quiet s s' /\ proj s' = proj s /\ incl (s_index s) (s_index s').
Proof.
  intros ST H. unfold fm_refresh_one in H.
  destruct (least_specific s (lookup_keys w o i)) as [[k l]|] eqn:LS.
  2:{ inversion H; subst. split; [apply quiet_refl|]. split; [reflexivity|apply incl_refl]. }
  destruct (settled_lookup w s o i k l ST LS) as [NR|(Hh & cl & G & NC)].
  - rewrite NR in H. cbn [negb] in H. inversion H; subst.
    split; [apply quiet_refl|]. split; [reflexivity|apply incl_refl].
  - destruct (needs_refresh s l); cbn [negb] in H.
    + rewrite Hh in H. rewrite (sync_of_canonical s o k cl G NC) in H. inversion H; subst.
      split; [apply quiet_index_put|]. split; [reflexivity|]. apply incl_tl, incl_refl.
    + inversion H; subst. split; [apply quiet_refl|]. split; [reflexivity|apply incl_refl].
Qed.

Lemma settled_same w s s' o i :
  proj s' = proj s -> incl (s_index s) (s_index s') -> settled w s o i -> settled w s' o i.
Proof.
  intros P I. apply settled_frame; [rewrite P; apply creach_refl|exact I|].
  change (k_pb (proj s') = k_pb (proj s)). rewrite P. reflexivity.
Qed.

Lemma settled_fm_phase2 w : forall todo s missing r s',
  (forall pos o i, In (pos, (o, i)) todo -> settled w s o i) ->
  fm_phase2 w s todo missing = (r, s') -> quiet s s'.
Proof.
  induction todo as [|[pos0 [o0 i0]] t IH]; intros s missing r s' HS H; cbn [fm_phase2] in H.
  - inversion H; subst. apply quiet_refl.
  - destruct (fm_refresh_one w s o0 i0) as [r1 s1] eqn:E1.
    apply settled_fm_refresh_one in E1; [|eapply HS; left; reflexivity].
    destruct E1 as (Q1 & P1 & I1).
    assert (HS1 : forall pos o i, In (pos, (o, i)) t -> settled w s1 o i).
    { intros pos o i Hin. eapply settled_same; [exact P1|exact I1|]. eapply HS. right. exact Hin. }
    destruct r1 as [[|]|e].
    + eapply quiet_trans; [exact Q1|eapply IH; eauto].
    + eapply quiet_trans; [exact Q1|eapply IH; eauto].
    + inversion H; subst. exact Q1.
Qed.

Lemma settled_find_missing w s ds r s' :
  (forall o i, In (o, i) ds -> settled w s o i \/ least_specific s (lookup_keys w o i) = None) ->
  find_missing w s ds = (r, s') -> quiet s s'.
Proof.
  intros HS H. unfold find_missing in H. eapply settled_fm_phase2; [|exact H].
  intros pos o i Hin. apply filter_In in Hin. destruct Hin as [Hin HF2].
  apply enumerate_in in Hin. destruct Hin as [_ Hn]. apply nth_error_In in Hn.
  (* a digest that is not found is not examined in the second phase *)
  destruct (HS o i Hn) as [ST|LN]; [exact ST|]. cbn in HF2. rewrite LN in HF2. discriminate.
Qed.

Theorem settled_step_fm w s ds s1 mo :
  (forall o i, In (o, i) ds -> settled w s o i \/ least_specific s (lookup_keys w o i) = None) ->
  step w s (OFindMissing ds) = (s1, mo) -> quiet s s1.
Proof.
  intros HS ES.
  destruct (step_fm w s ds s1 mo ES) as [[_ ->]|[(e & FM & _)|(m & FM & _)]].
  - apply quiet_refl.
  - exact (settled_find_missing w s ds _ s1 HS FM).
  - exact (settled_find_missing w s ds _ s1 HS FM).
Qed.

Lemma run_kinv w s es : kinv (w_cfg w) (proj s) -> kinv (w_cfg w) (proj (fst (run w s es))).
Proof. intros K. destruct (run_frame w es s K) as [R _]. eapply creach_kinv; eauto. Qed.

Lemma step_kinv w s e : kinv (w_cfg w) (proj s) -> kinv (w_cfg w) (proj (fst (step w s e))).
Proof. intros K. destruct (step_creach w s e K) as [R _]. eapply creach_kinv; eauto. Qed.

Lemma consume_settles w sa tid o u l wr f o' i' sb bytes :
  kinv (w_cfg w) (proj sa) -> (c_hier (w_cfg w) = true -> hinv sb) ->
  thr_get (s_threads sa) tid = Some (TGet o u l (Some wr) f) ->
  (exists k, In k f /\ In k (lookup_keys w o' i')) ->
  knonold (proj sa) (wr_abs wr) -> (wr_abs wr < k_end (proj sa))%N ->
  step w sa (OGetConsume tid) = (sb, Done cOK bytes) ->
  s_pushbacks sb = s_pushbacks sa ->
  settled w sb o' i'.
Proof.
  intros Ka HHb TH (k & KF & KL) NO B2 EC PB.
  destruct (step_creach w sa (OGetConsume tid) Ka) as [Rab _]. rewrite EC in Rab. cbn [fst] in Rab.
  destruct (step_getconsume w sa tid sb _ EC) as [[X _]|(o0 & u0 & l0 & r0 & f0 & code & bs & s0' & HT' & GC & -> & X)];
    [discriminate|].
  rewrite TH in HT'. inversion HT'; subst o0 u0 l0 r0 f0. inversion X; subst code bs.
  apply get_consume_spec in GC. destruct GC as (_ & HR).
  destruct (HR eq_refl wr eq_refl) as (nl & A1 & A2 & A3).
  exists k, nl. split; [exact KL|]. split; [apply A3, KF|]. split.
  - intros Hh. destruct (lookup_keys_hier w o' i' k Hh KL) as (a & ->).
    refine (proj1 (HHb Hh) _ _ _ _). apply A3, KF.
  - split.
    + apply (creach_nonold _ _ _ (l_abs nl) Rab); [exact PB|]. rewrite A1. exact NO.
    + pose proof (creach_mono _ _ _ Rab) as M. unfold kmono, k_end in M. cbn in M.
      unfold k_end in B2. cbn in B2. cbn. clear - A1 B2 M. lia.
Qed.

(** what is known about a reader opened for [oi] at push-back count [pb],
    as long as no block has been pushed back since *)
Definition GI (w : world) (s : state) (oi : nat * nat) (pb : nat) (t : thread) : Prop :=
  s_pushbacks s = pb ->
  match t with
  | TGet _ _ _ None _ => settled w s (fst oi) (snd oi)
  | TGet _ _ _ (Some wr) f =>
      (exists k, In k f /\ In k (lookup_keys w (fst oi) (snd oi))) /\
      knonold (proj s) (wr_abs wr) /\ (wr_abs wr < k_end (proj s))%N
  | _ => True
  end.

Lemma GI_frame w s s1 oi pb t :
  creach (w_cfg w) (proj s) (proj s1) -> incl (s_index s) (s_index s1) -> (pb <= s_pushbacks s)%nat ->
  GI w s oi pb t -> GI w s1 oi pb t.
Proof.
  intros R IN LE G E1.
  pose proof (creach_mono _ _ _ R) as M. unfold kmono, k_end in M. cbn in M.
  assert (E0 : s_pushbacks s = pb) by lia. specialize (G E0).
  destruct t as [? ? ? ?|? ? ?|o u l [wr|] f|? ? ? ? ? ?|?]; try exact I.
  - destruct G as (A & B & C). split; [exact A|]. split.
    + apply (creach_nonold _ _ _ _ R); [cbn; lia|exact B].
    + unfold k_end in *. cbn in *. lia.
  - eapply settled_frame; eauto. lia.
Qed.

Lemma get_open_GI w s tid o i s1 :
  kinv (w_cfg w) (proj s) -> winv w s -> step w s (OGetOpen tid o i) = (s1, Parked) ->
  exists u l r f, thr_get (s_threads s1) tid = Some (TGet o u l r f) /\
                  GI w s1 (o, i) (s_pushbacks s1) (TGet o u l r f).
Proof.
  intros K HH ES.
  pose proof (proj2 (step_winv w s _ s1 _ K HH ES)) as HH1.
  destruct (step_getopen_parked w s tid o i s1 K ES) as (t & s0 & -> & _ & (u & l & r & f & -> & _ & HP')).
  exists u, l, r, f. split; [rewrite thr_get_set, Nat.eqb_refl; reflexivity|]. intros _.
  destruct r as [wr|]; cbn [fst snd].
  - destruct HP' as (A & B1 & B2). split; [exact A|]. split; [|exact B2].
    unfold knonold. cbn in B1 |- *. clear - B1. lia.
  - destruct HP' as (T & PL & KF). exact (settled_of_placed w _ o i T HH1 PL KF).
Qed.

Lemma find_missing_settles w s o i s1 :
  kinv (w_cfg w) (proj s) -> winv w s ->
  step w s (OFindMissing [(o, i)]) = (s1, Missing cOK []) -> settled w s1 o i.
Proof.
  intros K HH ES.
  destruct (find_missing_single_present w s o i s1 K ES) as (T & PL & KF).
  exact (settled_of_placed w s1 o i T (proj2 (step_winv w s _ s1 _ K HH ES)) PL KF).
Qed.

Definition get_completed (w : world) (s1 : state) (tid : nat) (es : list op) : Prop :=
  pending_refresh s1 tid = false \/
  exists es1 es2 bytes,
    es = es1 ++ OGetConsume tid :: es2 /\
    thr_get (s_threads (fst (run w s1 es1))) tid = thr_get (s_threads s1) tid /\
    snd (step w (fst (run w s1 es1)) (OGetConsume tid)) = Done cOK bytes.

Lemma run_app w : forall es1 es2 s, fst (run w s (es1 ++ es2)) = fst (run w (fst (run w s es1)) es2).
Proof.
  induction es1 as [|e t IH]; intros es2 s; [reflexivity|].
  cbn [app]. rewrite !run_cons. apply IH.
Qed.

Lemma wrote_open_quiet w s tid o i s1 : quiet s s1 -> wrote w s (OGetOpen tid o i) s1 = false.
Proof. intros [Q _]. cbn [wrote]. rewrite (alloc_grew_false _ _ Q). reflexivity. Qed.
Lemma wrote_fm_quiet w s ds s1 : quiet s s1 -> wrote w s (OFindMissing ds) s1 = false.
Proof. intros [Q _]. cbn [wrote]. apply alloc_grew_false, Q. Qed.

Lemma get_settled_after w s tid o i s1 es :
  kinv (w_cfg w) (proj s) -> winv w s ->
  step w s (OGetOpen tid o i) = (s1, Parked) ->
  get_completed w s1 tid es ->
  s_pushbacks (fst (run w s1 es)) = s_pushbacks s1 ->
  settled w (fst (run w s1 es)) o i.
Proof.
  intros K HH ES GC PB.
  pose proof (step_kinv w s (OGetOpen tid o i) K) as K1. rewrite ES in K1. cbn [fst] in K1.
  pose proof (step_winv w s _ s1 _ K HH ES) as HH1.
  destruct (get_open_GI w s tid o i s1 K HH ES) as (u & l & r & f & HT & G).
  destruct r as [wr|]; [|apply settled_run; [exact K1|exact PB|exact (G eq_refl)]].
  destruct GC as [PR|(es1 & es2 & bytes & -> & TH & OK)];
    [unfold pending_refresh in PR; rewrite HT in PR; discriminate|].
  rewrite run_app in *. rewrite run_cons in *.
  set (sa := fst (run w s1 es1)) in *.
  destruct (step w sa (OGetConsume tid)) as [sb ob] eqn:EC. cbn [fst snd] in *. subst ob.
  pose proof (run_kinv w s1 es1 K1) as Ka. fold sa in Ka.
  pose proof (step_kinv w sa (OGetConsume tid) Ka) as Kb. rewrite EC in Kb. cbn [fst] in Kb.
  pose proof (counters_monotone w s1 es1 K1) as M1. cbv zeta in M1. fold sa in M1.
  pose proof (counters_monotone w sb es2 Kb) as M3. cbv zeta in M3.
  destruct (step_creach w sa (OGetConsume tid) Ka) as [Rab _]. rewrite EC in Rab. cbn [fst] in Rab.
  pose proof (creach_mono _ _ _ Rab) as M2. unfold kmono in M2. cbn in M2.
  pose proof (run_winv w es1 s1 K1 HH1) as HHa. fold sa in HHa.
  apply settled_run; [exact Kb|clear - PB M1 M2 M3; lia|].
  destruct (run_frame w es1 s1 K1) as [R IN]. fold sa in R, IN.
  destruct (GI_frame w s1 sa (o, i) _ _ R IN (le_n _) G) as (A & B & C); [clear - PB M1 M2 M3; lia|].
  apply (consume_settles w sa tid o u l wr f o i sb bytes Ka (proj2 (step_winv w sa _ sb _ Ka HHa EC)));
    [rewrite TH; exact HT|exact A|exact B|exact C|exact EC|clear - PB M1 M2 M3; lia].
Qed.

(** (a) After a Get of (o,i) whose reader was obtained in [s1] and which has
    completed (no copy was pending, or the pending copy was completed by a
    successful consumption), as long as no block has been allocated since
    the reader was obtained, another Get-open of (o,i) allocates nothing,
    leaves the medium untouched and parks a reader without a pending copy -
    for every reachable state, every continuation [es] (whatever else it
    contains, corruption events included), flat and hierarchical, both
    growth policies, both read factories. *)
Theorem repeat_get_writes_nothing_all w es0 tid o i s1 es tid' s3 mo :
  let s := fst (run w (init_state (w_cfg w)) es0) in
  step w s (OGetOpen tid o i) = (s1, Parked) ->
  get_completed w s1 tid es ->
  let s2 := fst (run w s1 es) in
  s_pushbacks s2 = s_pushbacks s1 ->
  step w s2 (OGetOpen tid' o i) = (s3, mo) ->
  wrote w s2 (OGetOpen tid' o i) s3 = false /\ alloc_grew s2 s3 = false /\ s_dev s3 = s_dev s2 /\
  (mo = Parked -> pending_refresh s3 tid' = false).
Proof.
  cbv zeta. intros ES GC PB ES2.
  assert (ST : settled w (fst (run w s1 es)) o i).
  { eapply get_settled_after; eauto; [apply reachable_kinv|apply reachable_winv]. }
  destruct (settled_step_get_open _ _ _ _ _ _ _ ST ES2) as [Q P].
  split; [apply wrote_open_quiet, Q|]. split; [apply alloc_grew_false, Q|]. split; [apply Q|exact P].
Qed.

(** the consumption of a reader without a pending copy writes nothing *)
Theorem consume_without_pending_copy_writes_nothing w s tid s' :
  pending_refresh s tid = false -> wrote w s (OGetConsume tid) s' = false.
Proof. intros P. cbn [wrote]. rewrite P. reflexivity. Qed.

(** (b) the same for a single-digest FindMissing that reported the object
    present *)
Theorem repeat_find_missing_writes_nothing_all w es0 o i s1 es s3 mo :
  let s := fst (run w (init_state (w_cfg w)) es0) in
  step w s (OFindMissing [(o, i)]) = (s1, Missing cOK []) ->
  let s2 := fst (run w s1 es) in
  s_pushbacks s2 = s_pushbacks s1 ->
  step w s2 (OFindMissing [(o, i)]) = (s3, mo) ->
  wrote w s2 (OFindMissing [(o, i)]) s3 = false /\ s_dev s3 = s_dev s2.
Proof.
  cbv zeta. intros ES PB ES2.
  set (s := fst (run w (init_state (w_cfg w)) es0)) in *.
  assert (K : kinv (w_cfg w) (proj s)) by apply reachable_kinv.
  assert (HH : winv w s) by apply reachable_winv.
  pose proof (step_kinv w s (OFindMissing [(o, i)]) K) as K1. rewrite ES in K1. cbn [fst] in K1.
  assert (ST : settled w (fst (run w s1 es)) o i).
  { apply settled_run; [exact K1|exact PB|]. exact (find_missing_settles w s o i s1 K HH ES). }
  assert (Q : quiet (fst (run w s1 es)) s3).
  { eapply settled_step_fm; [|exact ES2]. intros o' i' [E|[]]. inversion E; subst. left. exact ST. }
  split; [apply wrote_fm_quiet, Q|apply Q].
Qed.
