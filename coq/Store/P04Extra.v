(** C04 proofs: the quarantine loop completes within its fuel; the
    global balance of pins and outstanding references. *)
From Coq Require Import List NArith ZArith Bool Arith Lia Permutation.
From Coq Require Import ZifyN ZifyNat ZifyBool.
From BBS Require Import Store.Model Store.P04Base Store.P04Fbs.
Import ListNotations.
Local Open Scope nat_scope.

(** loop 1 of findBlockWithSpace stops because released = toBeReleased, not
    because the fuel ran out *)
Theorem release_loop_done c s R : AInv c s R -> CInv c s ->
  let s' := fbs_release c (S (length (s_blocks s))) s in
  s_released s' = s_tbr s'.
Proof.
  intros A C s'.
  assert (H : HI c s s R) by (split; [exact A | split; [exact C | apply Fr_refl]]).
  destruct (fbs_release_ok c s _ (S (length (s_blocks s))) s H) as [[_ [[_ C2 _ _] _]] D].
  fold s' in D, C2. destruct C as [_ _ C3 _].
  assert (X : N.to_nat (s_tbr s - s_released s) < S (length (s_blocks s))) by lia.
  specialize (D X). lia.
Qed.

(** balance: pins held on blocks = references held by parked operations *)
Definition pins (s : state) : nat :=
  list_sum (map (fun b => b_use b - 1) (s_blocks s)) + list_sum (map b_use (s_zombies s)).

Lemma list_sum_ext {A} (f g : A -> nat) l : (forall x, In x l -> f x = g x) ->
  list_sum (map f l) = list_sum (map g l).
Proof.
  induction l as [|a t IH]; intros H; simpl; [reflexivity|].
  rewrite (H a (or_introl eq_refl)), IH; [reflexivity|]. intros x Hx. apply H. right. exact Hx.
Qed.

Lemma list_sum_ind (a : nat) l : list_sum (map (fun u => if Nat.eqb a u then 1 else 0) l) = cnt l a.
Proof.
  induction l as [|x t IH]; [reflexivity|].
  cbn [map]. rewrite cnt_cons, <- IH, (Nat.eqb_sym a x). reflexivity.
Qed.

Lemma list_sum_add {A} (f g : A -> nat) l :
  list_sum (map (fun x => f x + g x) l) = list_sum (map f l) + list_sum (map g l).
Proof. induction l as [|a t IH]; simpl; [reflexivity | rewrite IH; lia]. Qed.

Lemma sum_cnt R : forall l, NoDup l -> (forall u, In u R -> In u l) ->
  list_sum (map (cnt R) l) = length R.
Proof.
  induction R as [|a R' IH]; intros l ND Hin.
  - cbn [length]. induction l as [|x t IHl]; simpl; [reflexivity|].
    inversion ND; subst. rewrite IHl; auto. intros u [].
  - rewrite (list_sum_ext (cnt (a :: R')) (fun u => (if Nat.eqb a u then 1 else 0) + cnt R' u)).
    2:{ intros x _. apply cnt_cons. }
    rewrite list_sum_add, list_sum_ind, IH; auto.
    2:{ intros u Hu. apply Hin. right. exact Hu. }
    assert (cnt l a = 1).
    { unfold cnt. apply (proj1 (NoDup_count_occ' Nat.eq_dec l)); [exact ND|]. apply Hin. left. reflexivity. }
    cbn [length]. lia.
Qed.

Theorem pins_refs c s R : AInv c s R -> pins s = length R.
Proof.
  intros [A1 A2 A3 A4 A5 A6].
  rewrite <- (sum_cnt R (uids s) A1 A6). unfold pins, uids. rewrite map_app, list_sum_app, !map_map.
  f_equal.
  - apply list_sum_ext. intros b Hb. rewrite (A4 b Hb). lia.
  - apply list_sum_ext. intros z Hz. apply (A5 z Hz).
Qed.
