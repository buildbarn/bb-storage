(** C04 proofs: the C04 monitor is silent on every run of the model. *)
From Coq Require Import List NArith ZArith Bool Arith Lia Permutation.
From BBS Require Import Common.Sx Store.Model Run.RStore Run.R01 Run.R04.
From BBS Require Import Store.P04Base Store.P04Fbs Store.P04Step Store.P04Main.
Import ListNotations.
Local Open Scope nat_scope.

Definition model_obs (w : world) (es : list op) (sts : list (state * state * out)) : list sx :=
  map (fun '(e, (s0, s1, o)) => enc_obs (w_cfg w) e s0 s1 o) (combine es sts).

Definition mon04_from (w : world) (s : state) (es : list op) (acc : list nat * list Z) : list nat * list Z :=
  let sts := run_states w s es in
  fold_left m04_step (combine (combine es sts) (model_obs w es sts)) acc.

Definition mon04_model (w : world) (es : list op) : list Z :=
  dedupZ (snd (mon04_from w (init_state (w_cfg w)) es ([], []))).

(** [mon04] applied to the model's own output is [mon04_model] *)
Lemma mon04_run_store inp : mon04 inp (run_store inp) = mon04_model (dec_world inp) (dec_ops inp).
Proof. reflexivity. Qed.

Definition kindZ (o : out) : Z := match o with Done _ _ => 0 | Parked => 1 | Missing _ _ => 2 | Bad => 3 end.

Lemma ob_kind_enc c e s0 s1 o : ob_kind (enc_obs c e s0 s1 o) = kindZ o.
Proof. destruct o; reflexivity. Qed.
Lemma ob_srcclosed_enc c e s0 s1 o : completes_put e o = true -> ob_srcclosed (enc_obs c e s0 s1 o) = 1%Z.
Proof.
  intros H. destruct o; try (destruct e; discriminate).
  unfold enc_obs, ob_srcclosed. cbn. rewrite H. reflexivity.
Qed.
Lemma ob_open_enc c e s0 s1 o : o <> Bad ->
  ob_open (enc_obs c e s0 s1 o) = if negb (in_memory c) then Z.of_nat (open_readers s1) else (-1)%Z.
Proof.
  intros H. destruct o; try congruence; unfold enc_obs, ob_open; cbn; destruct (negb (in_memory c)); reflexivity.
Qed.
Lemma ob_live_enc c e s0 s1 o : o <> Bad ->
  ob_live (enc_obs c e s0 s1 o) = if negb (in_memory c) then Z.of_nat (live_blocks s1) else (-1)%Z.
Proof.
  intros H. destruct o; try congruence; unfold enc_obs, ob_live; cbn; destruct (negb (in_memory c)); reflexivity.
Qed.

(** the monitor's table of operations in flight *)
Definition opened_next (e : op) (o : out) (opened : list nat) : list nat :=
  match e with
  | OPutStart tid _ _ | OGetOpen tid _ _ | OGfcStart tid _ _ _ =>
      if Z.eqb (kindZ o) 1 then tid :: opened else opened
  | OPutChunk tid _ | OPutEnd tid _ | OGetConsume tid | OGfcSlice tid _ =>
      if Z.eqb (kindZ o) 0 then filter (fun t => negb (Nat.eqb t tid)) opened else opened
  | _ => opened
  end.

Definition put_done (e : op) (o : out) : bool :=
  match e with
  | OPutStart _ _ _ | OPutChunk _ _ | OPutEnd _ _ => Z.eqb (kindZ o) 0
  | _ => false
  end.

Definition quiescent (e : op) (o : out) (opened : list nat) : bool :=
  match opened_next e o opened with [] => negb (Z.eqb (kindZ o) 3) | _ => false end.

Lemma m04_step_eq c opened viol e s0 s1 o :
  m04_step (opened, viol) (e, (s0, s1, o), enc_obs c e s0 s1 o) =
  (opened_next e o opened,
   viol ++ (if put_done e o && negb (Z.eqb (ob_srcclosed (enc_obs c e s0 s1 o)) 1) then [1%Z] else [])
        ++ (if quiescent e o opened && Z.ltb 0 (ob_open (enc_obs c e s0 s1 o)) then [2%Z] else [])
        ++ (if quiescent e o opened && Z.leb 0 (ob_live (enc_obs c e s0 s1 o))
               && Z.ltb (Z.of_nat (length (s_blocks s1))) (ob_live (enc_obs c e s0 s1 o)) then [3%Z] else [])).
Proof. unfold m04_step. rewrite ob_kind_enc. reflexivity. Qed.

(** the monitor's table and the model's thread table list the same operations *)
Definition Sim (opened : list nat) (s : state) : Prop := forall x, In x opened <-> In x (tids s).

Lemma Sim_init c : Sim [] (init_state c).
Proof. intros x. reflexivity. Qed.

Lemma tids_nil s : tids s = [] -> s_threads s = [].
Proof. unfold tids. destruct (s_threads s); [reflexivity | discriminate]. Qed.

Lemma Sim_next e o opened s s1 :
  thr_eff e o (s_threads s) (s_threads s1) -> Sim opened s -> Sim (opened_next e o opened) s1.
Proof.
  intros HE HS x. unfold Sim in HS. unfold tids in *.
  assert (Hdel : forall tid, In x (filter (fun t => negb (Nat.eqb t tid)) opened) <->
                             In x (map fst (thr_del (s_threads s) tid))).
  { intros tid. rewrite filter_In, thr_del_tids, negb_true_iff, Nat.eqb_neq, HS. reflexivity. }
  assert (Hset : forall tid t, In tid (map fst (s_threads s)) ->
                 (In x opened <-> In x (map fst ((tid, t) :: thr_del (s_threads s) tid)))).
  { intros tid t Hin. cbn [map fst In]. rewrite thr_del_tids, HS. split.
    - intros H. destruct (Nat.eq_dec x tid); [left; congruence | right; auto].
    - intros [H|[H _]]; [subst; exact Hin | exact H]. }
  assert (Hnew : forall tid t, thr_get (s_threads s) tid = None ->
                 (In x (tid :: opened) <-> In x (map fst ((tid, t) :: thr_del (s_threads s) tid)))).
  { intros tid t Hn. rewrite (thr_del_none _ _ Hn). cbn [map fst In]. rewrite HS. reflexivity. }
  destruct o; cbn [thr_eff kindZ] in HE.
  - destruct HE as [[Hc E]|[tid [Hc E]]]; rewrite E.
    + destruct e; cbn [opened_next kindZ Z.eqb] in *; try discriminate; apply HS.
    + destruct e; cbn [opened_next kindZ Z.eqb op_cont] in *; try discriminate; inversion Hc; subst; apply Hdel.
  - destruct HE as [[tid [t [Hc [Hg E]]]]|[tid [t [Hc [Hg E]]]]]; rewrite E.
    + destruct e; cbn [opened_next kindZ Z.eqb op_start] in *; try discriminate; inversion Hc; subst; apply Hnew; exact Hg.
    + destruct e; cbn [opened_next kindZ Z.eqb op_cont] in *; try discriminate; inversion Hc; subst; apply Hset;
        (destruct (thr_get (s_threads s) tid) eqn:Eg; [apply thr_get_in in Eg; apply in_map_iff; eexists; split; [|exact Eg]; reflexivity | congruence]).
  - destruct HE as [Hs [Hc E]]. rewrite E.
    destruct e; cbn [opened_next kindZ Z.eqb op_start op_cont] in *; try discriminate; apply HS.
  - rewrite HE. destruct e; cbn [opened_next kindZ Z.eqb]; apply HS.
Qed.

Lemma put_done_completes e o : put_done e o = true -> completes_put e o = true.
Proof. destruct e, o; cbn; intros H; try discriminate; reflexivity. Qed.

Lemma m04_step_silent w s e opened : wfc (w_cfg w) -> Inv w s -> Sim opened s ->
  let s1 := fst (step w s e) in let o := snd (step w s e) in
  m04_step (opened, []) (e, (s, s1, o), enc_obs (w_cfg w) e s s1 o) = (opened_next e o opened, []) /\
  Inv w s1 /\ Sim (opened_next e o opened) s1.
Proof.
  intros W HI HS s1 o. pose proof (step_ok w W s HI e) as (I1 & _ & HE & _ & _ & _).
  fold s1 o in I1, HE.
  assert (S1 : Sim (opened_next e o opened) s1) by (eapply Sim_next; eauto).
  split; [|split; assumption].
  rewrite m04_step_eq. f_equal. cbn [app].
  (* clause 1 *)
  assert (V1 : put_done e o && negb (Z.eqb (ob_srcclosed (enc_obs (w_cfg w) e s s1 o)) 1) = false).
  { destruct (put_done e o) eqn:E; [|reflexivity]. apply put_done_completes in E.
    rewrite ob_srcclosed_enc by exact E. reflexivity. }
  rewrite V1. cbn [app].
  destruct (quiescent e o opened) eqn:EQ; [|reflexivity].
  unfold quiescent in EQ. destruct (opened_next e o opened) eqn:EO; [|discriminate].
  assert (Hb : o <> Bad) by (intros ->; discriminate).
  assert (T1 : s_threads s1 = []).
  { apply tids_nil. destruct (tids s1) as [|x r] eqn:ET; [reflexivity|]. exfalso.
    apply (proj2 (S1 x)). rewrite ET. left. reflexivity. }
  pose proof (proj1 (Inv_idle w s1 I1 T1)) as Z1.
  rewrite ob_open_enc, ob_live_enc by exact Hb.
  unfold open_readers, live_blocks. rewrite T1, Z1. cbn [filter length andb]. rewrite Nat.add_0_r.
  destruct (negb (in_memory (w_cfg w))); cbn [Z.ltb Z.leb Z.of_nat Z.compare andb app].
  - rewrite Z.ltb_irrefl, andb_false_r. reflexivity.
  - reflexivity.
Qed.

Lemma mon04_from_silent w : wfc (w_cfg w) -> forall es s opened, Inv w s -> Sim opened s ->
  snd (mon04_from w s es (opened, [])) = [].
Proof.
  intros W. induction es as [|e t IH]; intros s opened HI HS; [reflexivity|].
  unfold mon04_from, model_obs. cbn [run_states].
  destruct (m04_step_silent w s e opened W HI HS) as (E & I1 & S1).
  destruct (step w s e) as [s1 o] eqn:ES. cbn [fst snd] in *.
  cbn [combine map fold_left]. rewrite E. apply (IH s1 _ I1 S1).
Qed.

