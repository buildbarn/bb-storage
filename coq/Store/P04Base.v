(** C04 proofs: definitions of the invariant; what it does not look
    at. *)
From Coq Require Import List NArith ZArith Bool Arith Lia Permutation.
From Coq Require Import ZifyN ZifyNat ZifyBool.
From BBS Require Import Store.Model Store.Wf.
From BBS Require Export Store.Basics.
Import ListNotations.
Local Open Scope nat_scope.

Ltac sred :=
  cbn [s_blocks s_zombies s_free s_next_region s_next_uid s_dev s_old s_cur s_new
       s_released s_tbr s_attempts s_aidx s_index s_threads s_pushbacks s_negs
       upd_blocks upd_free upd_dev upd_counts upd_rel upd_alloc upd_index upd_threads
       bump_negs reset_alloc thr_set thr_rm index_put
       b_uid b_region b_cursor b_use set_use set_cursor fst snd] in *.

Definition cnt (R : list nat) (u : nat) : nat := count_occ Nat.eq_dec R u.

Lemma cnt_nil u : cnt [] u = 0.
Proof. reflexivity. Qed.
Lemma cnt_cons R u v : cnt (v :: R) u = (if Nat.eqb v u then 1 else 0) + cnt R u.
Proof.
  unfold cnt. cbn [count_occ]. destruct (Nat.eq_dec v u) as [E|E].
  - subst. rewrite Nat.eqb_refl. reflexivity.
  - apply Nat.eqb_neq in E. rewrite E. reflexivity.
Qed.
Lemma cnt_app R1 R2 u : cnt (R1 ++ R2) u = cnt R1 u + cnt R2 u.
Proof. unfold cnt. apply count_occ_app. Qed.
Lemma cnt_perm R R' u : Permutation R R' -> cnt R u = cnt R' u.
Proof. intros P. unfold cnt. revert u. apply Permutation_count_occ. exact P. Qed.
Lemma cnt_In R u : In u R <-> 1 <= cnt R u.
Proof. unfold cnt. rewrite (count_occ_In Nat.eq_dec). lia. Qed.
Lemma cnt_notin R u : ~ In u R -> cnt R u = 0.
Proof. intros H. unfold cnt. apply count_occ_not_In. exact H. Qed.

Definition wref (r : option writer) : list nat :=
  match r with Some wr => [wr_uid wr] | None => [] end.
Definition refs (c : config) (t : thread) : list nat :=
  match t with
  | TPut _ _ wr _ => [wr_uid wr]
  | TPutExisting _ _ _ => []
  | TGet _ uid _ r _ => uid :: wref r
  | TGfc _ _ uid _ r _ => uid :: (if lockstep c then wref r else [])
  | TGfcErr _ => []
  end.
Definition all_refs (c : config) (ts : list (nat * thread)) : list nat :=
  flat_map (fun e => refs c (snd e)) ts.
Lemma in_all_refs c ts tid t uid : In (tid, t) ts -> In uid (refs c t) -> In uid (all_refs c ts).
Proof. intros H1 H2. unfold all_refs. apply in_flat_map. exists (tid, t). split; assumption. Qed.
(** number of references parked threads hold on block [uid] *)
Definition nrefs (c : config) (s : state) (uid : nat) : nat := cnt (all_refs c (s_threads s)) uid.

Definition uids (s : state) : list nat := map b_uid (s_blocks s) ++ map b_uid (s_zombies s).
Definition allb (s : state) : list block := s_blocks s ++ s_zombies s.
Definition regions (s : state) : list nat :=
  map b_region (s_blocks s) ++ map b_region (s_zombies s) ++ s_free s.
Definition rcl (l : list block) (r : nat) : nat := cnt (map b_region l) r.
Definition rc (s : state) (r : nat) : nat := rcl (s_blocks s) r + rcl (s_zombies s) r + cnt (s_free s) r.

Lemma rc_regions s r : cnt (regions s) r = rc s r.
Proof. unfold regions, rc, rcl. rewrite !cnt_app. lia. Qed.
Lemma uids_allb s : uids s = map b_uid (allb s).
Proof. unfold uids, allb. rewrite map_app. reflexivity. Qed.

Lemma rcl_app l1 l2 r : rcl (l1 ++ l2) r = rcl l1 r + rcl l2 r.
Proof. unfold rcl. rewrite map_app, cnt_app. reflexivity. Qed.
Lemma rcl_cons b l r : rcl (b :: l) r = (if Nat.eqb (b_region b) r then 1 else 0) + rcl l r.
Proof. unfold rcl. cbn [map]. apply cnt_cons. Qed.
Lemma rcl_nil r : rcl [] r = 0.
Proof. reflexivity. Qed.
Lemma rcl_perm l l' r : Permutation l l' -> rcl l r = rcl l' r.
Proof. intros P. unfold rcl. apply cnt_perm. apply Permutation_map. exact P. Qed.

Lemma map_map_uid {T} (g : block -> T) f uid l : (forall b, g (f b) = g b) ->
  map g (map_uid f uid l) = map g l.
Proof.
  intros Hf. induction l as [|b t IH]; cbn [map_uid map]; [reflexivity|].
  destruct (Nat.eqb (b_uid b) uid); cbn [map]; [rewrite Hf; reflexivity | rewrite IH; reflexivity].
Qed.

Lemma find_uid_in uid l : In uid (map b_uid l) -> exists b, find_uid uid l = Some b.
Proof.
  intros H. destruct (find_uid uid l) eqn:E; [eexists; reflexivity|].
  exfalso. exact (find_uid_none _ _ E H).
Qed.

Lemma In_map_uid f uid l x : NoDup (map b_uid l) -> (forall b, b_uid (f b) = b_uid b) ->
  In x (map_uid f uid l) ->
  (In x l /\ b_uid x <> uid) \/ (exists y, In y l /\ b_uid y = uid /\ x = f y).
Proof.
  intros ND Hf. induction l as [|b t IH]; cbn [map_uid]; [intros []|].
  inversion ND as [|? ? Hn ND']; subst.
  destruct (Nat.eqb (b_uid b) uid) eqn:E.
  - apply Nat.eqb_eq in E. intros [H|H].
    + right. exists b. split; [left; reflexivity|]. split; [exact E | symmetry; exact H].
    + left. split; [right; exact H|]. intros Hx. apply Hn. rewrite E, <- Hx. apply in_map. exact H.
  - apply Nat.eqb_neq in E. intros [H|H].
    + left. subst x. split; [left; reflexivity | exact E].
    + destruct (IH ND' H) as [[H1 H2]|[y [H1 [H2 H3]]]].
      * left. split; [right; exact H1 | exact H2].
      * right. exists y. split; [right; exact H1|]. split; assumption.
Qed.

Definition RegInv (c : config) (s : state) : Prop :=
  forall r, if in_memory c
            then rc s r <= (if Nat.ltb r (s_next_region s) then 1 else 0)
            else rc s r = (if Nat.ltb r (c_nblocks c) then 1 else 0).

(** allocator invariant relative to the multiset [R] of references held by
    threads (parked ones and the operation being executed) *)
Record AInv (c : config) (s : state) (R : list nat) : Prop := {
  a_nodup : NoDup (uids s);
  a_lt : forall u, In u (uids s) -> u < s_next_uid s;
  a_reg : RegInv c s;
  a_useb : forall b, In b (s_blocks s) -> b_use b = S (cnt R (b_uid b));
  a_usez : forall b, In b (s_zombies s) -> b_use b = cnt R (b_uid b) /\ 1 <= b_use b;
  a_refs : forall u, In u R -> In u (uids s);
}.

Record CInv (c : config) (s : state) : Prop := {
  c_len : length (s_blocks s) = s_old s + s_cur s + s_new s;
  c_rel : (s_released s <= s_tbr s)%N;
  c_tbr : (s_tbr s <= s_released s + N.of_nat (length (s_blocks s)))%N;
  c_imm : c_mutable c = false -> s_cur s <= c_cur c /\ s_cur s + s_new s <= c_cur c + c_new c;
}.

(** frame: what every function of the model leaves alone / only extends,
    relative to a reference state [s0] (the state before the step) *)
Record Fr (s0 s : state) : Prop := {
  f_thr : s_threads s = s_threads s0;
  f_nuid : s_next_uid s0 <= s_next_uid s;
  f_old : forall b', In b' (allb s) -> b_uid b' < s_next_uid s0 ->
          exists b, In b (allb s0) /\ b_uid b = b_uid b' /\ b_region b = b_region b';
  f_tot : (s_released s0 + N.of_nat (length (s_blocks s0)) <= s_released s + N.of_nat (length (s_blocks s)))%N;
}.

Definition HI (c : config) (s0 s : state) (R : list nat) : Prop :=
  AInv c s R /\ CInv c s /\ Fr s0 s.

Lemma Fr_refl s : Fr s s.
Proof.
  constructor; try reflexivity; try lia.
  intros b' H _. exists b'. auto.
Qed.

Lemma AInv_perm c s R R' : Permutation R R' -> AInv c s R -> AInv c s R'.
Proof.
  intros P [H1 H2 H3 H4 H5 H6]. constructor; auto.
  - intros b Hb. rewrite <- (cnt_perm _ _ _ P). auto.
  - intros b Hb. rewrite <- (cnt_perm _ _ _ P). auto.
  - intros u Hu. apply H6. eapply Permutation_in; [apply Permutation_sym; exact P | exact Hu].
Qed.
Lemma HI_perm c s0 s R R' : Permutation R R' -> HI c s0 s R -> HI c s0 s R'.
Proof. intros P [A [C F]]. split; [eapply AInv_perm; eauto | split; assumption]. Qed.

Definition same_alloc (s s' : state) : Prop :=
  s_blocks s' = s_blocks s /\ s_zombies s' = s_zombies s /\ s_free s' = s_free s /\
  s_next_region s' = s_next_region s /\ s_next_uid s' = s_next_uid s.
Definition same_cnt (s s' : state) : Prop :=
  s_old s' = s_old s /\ s_cur s' = s_cur s /\ s_new s' = s_new s /\
  s_released s' = s_released s /\ s_tbr s' = s_tbr s.

Lemma AInv_same c s s' R : same_alloc s s' -> AInv c s R -> AInv c s' R.
Proof.
  intros (E1 & E2 & E3 & E4 & E5) [H1 H2 H3 H4 H5 H6].
  assert (EU : uids s' = uids s) by (unfold uids; rewrite E1, E2; reflexivity).
  constructor; try rewrite EU; try rewrite E5; try rewrite E1; try rewrite E2; auto.
  intros r. specialize (H3 r). unfold rc in *. rewrite E1, E2, E3, E4. exact H3.
Qed.
Lemma CInv_same c s s' : s_blocks s' = s_blocks s -> same_cnt s s' -> CInv c s -> CInv c s'.
Proof.
  intros E0 (E1 & E2 & E3 & E4 & E5) [H1 H2 H3 H4].
  constructor; rewrite ?E0, ?E1, ?E2, ?E3, ?E4, ?E5; auto.
Qed.
Lemma Fr_same s0 s s' : s_blocks s' = s_blocks s -> s_zombies s' = s_zombies s ->
  s_next_uid s' = s_next_uid s -> s_threads s' = s_threads s -> s_released s' = s_released s ->
  Fr s0 s -> Fr s0 s'.
Proof.
  intros E1 E2 E5 ET ER [H1 H2 H3 H4].
  constructor; unfold allb in *; rewrite ?E1, ?E2, ?E5, ?ET, ?ER; auto.
Qed.

Lemma HI_same c s0 s s' R : same_alloc s s' -> same_cnt s s' -> s_threads s' = s_threads s ->
  HI c s0 s R -> HI c s0 s' R.
Proof.
  intros SA SC ST [A [C F]]. split; [|split].
  - apply (AInv_same c s s'); assumption.
  - apply (CInv_same c s s'); [apply SA | exact SC | exact C].
  - destruct SA as (E1 & E2 & E3 & E4 & E5). destruct SC as (_ & _ & _ & E & _).
    apply (Fr_same s0 s s'); assumption.
Qed.

Ltac same_tac := unfold same_alloc, same_cnt; sred; repeat split; reflexivity.

Lemma HI_upd_dev c s0 s R d : HI c s0 s R -> HI c s0 (upd_dev s d) R.
Proof. apply HI_same; same_tac. Qed.
Lemma HI_upd_alloc c s0 s R a i : HI c s0 s R -> HI c s0 (upd_alloc s a i) R.
Proof. apply HI_same; same_tac. Qed.
Lemma HI_bump_negs c s0 s R : HI c s0 s R -> HI c s0 (bump_negs s) R.
Proof. apply HI_same; same_tac. Qed.

Lemma HI_write_block c s0 s R uid off data : HI c s0 s R -> HI c s0 (write_block s uid off data) R.
Proof. intros H. unfold write_block. destruct (find_block s uid); [apply HI_upd_dev|]; exact H. Qed.
Lemma HI_index_put c s0 s R k l : HI c s0 s R -> HI c s0 (index_put s k l) R.
Proof. apply HI_same; same_tac. Qed.
Lemma HI_index_put_all c s0 ks : forall s R l, HI c s0 s R -> HI c s0 (index_put_all s ks l) R.
Proof.
  induction ks as [|k t IH]; intros s R l H; cbn [index_put_all]; [exact H|].
  apply IH. apply HI_index_put. exact H.
Qed.

Lemma uids_in_split s u : In u (uids s) -> NoDup (uids s) ->
  (In u (map b_uid (s_blocks s)) /\ ~ In u (map b_uid (s_zombies s))) \/
  (~ In u (map b_uid (s_blocks s)) /\ In u (map b_uid (s_zombies s))).
Proof.
  unfold uids. intros H ND. apply in_app_or in H. destruct H as [H|H].
  - left. split; [exact H|]. intros H'. exact (NoDup_app_disj _ _ _ ND H H').
  - right. split; [|exact H]. intros H'. exact (NoDup_app_disj _ _ _ ND H' H).
Qed.

Lemma set_use_uid b u : b_uid (set_use b u) = b_uid b.
Proof. reflexivity. Qed.
