(** C01 proofs: general helper lemmas for P01OpsB (claims, pairwise, lookup),
    and the structural lemmas [DInv_drop] / [DInv_perm]. *)
From Coq Require Import List NArith ZArith Bool Arith Lia Permutation ZifyN ZifyNat ZifyBool.
From BBS Require Import Store.Model Store.Wf Store.P01Inv.
From BBS Require Export Store.P01OpsA1.
Import ListNotations.
Open Scope N_scope.

Lemma slice_slice x a m b n :
  (b + n <= m)%nat -> slice (slice x a m) b n = slice x (a + b) n.
Proof.
  intros H. rewrite !slice_eq, skipn_add, skipn_firstn_comm, firstn_firstn.
  f_equal. lia.
Qed.

Lemma slice_length_le x a n : (length (slice x a n) <= n)%nat.
Proof. rewrite slice_eq, firstn_length. lia. Qed.

Lemma slice_all x : slice x 0 (length x) = x.
Proof. rewrite slice_eq. simpl. apply firstn_all. Qed.

Lemma nrefs_perm uid cl cl' : Permutation cl cl' -> nrefs uid cl = nrefs uid cl'.
Proof. induction 1; rewrite ?nrefs_cons in *; lia. Qed.

Lemma nrefs_zero_in uid cl c : nrefs uid cl = 0%nat -> In c cl -> cref uid c = 0%nat.
Proof.
  induction cl as [|a cl IH]; simpl; intros H Hi; [contradiction|].
  rewrite nrefs_cons in H. destruct Hi as [->|Hi]; [lia|apply IH; [lia|exact Hi]].
Qed.

Lemma cref_le1 uid c : (cref uid c <= 1)%nat.
Proof. destruct c; simpl; try destruct (Nat.eqb _ _); lia. Qed.

Lemma cref_self_cw wr acc : cref (wr_uid wr) (CW wr acc) = 1%nat.
Proof. simpl. now rewrite Nat.eqb_refl. Qed.

Lemma cref_self_cr u l o : cref u (CR u l o) = 1%nat.
Proof. simpl. now rewrite Nat.eqb_refl. Qed.

Lemma cref_one_uid uid c : cref uid c = 1%nat -> c_uid c = uid.
Proof.
  destruct c; simpl; try discriminate;
    (destruct (Nat.eqb _ _) eqn:E; [intros _; now apply Nat.eqb_eq|discriminate]).
Qed.

Lemma cdisj_sym a b : cdisj a b -> cdisj b a.
Proof.
  unfold cdisj. intros H H1 H2. rewrite orb_comm in H1.
  apply rdisj_sym, H; [exact H1|now symmetry].
Qed.

Lemma pairwise_perm {T} (R : T -> T -> Prop) (Rs : forall a b, R a b -> R b a) l l' :
  Permutation l l' -> pairwise R l -> pairwise R l'.
Proof.
  induction 1 as [|x l l' HP IH|x y l|l l' l'' _ IH1 _ IH2]; simpl.
  - auto.
  - intros [H1 H2]. split; [|auto].
    intros y Hy. apply H1. eapply Permutation_in; [apply Permutation_sym; exact HP|exact Hy].
  - intros [H1 [H2 H3]]. split; [|split; [|exact H3]].
    + intros z [<-|Hz]; [apply Rs, H1; now left|now apply H2].
    + intros z Hz. apply H1. now right.
  - auto.
Qed.

Lemma pairwise_in {T} (R : T -> T -> Prop) l x y :
  pairwise R l -> In x l -> In y l -> x <> y -> R x y \/ R y x.
Proof.
  induction l as [|a l IH]; simpl; [contradiction|].
  intros [H1 H2] [->|Hx] [->|Hy] Hne.
  - congruence.
  - left; auto.
  - right; auto.
  - auto.
Qed.

Lemma find_uid_none uid l : find_uid uid l = None -> forall b, In b l -> b_uid b <> uid.
Proof.
  induction l as [|a l IH]; simpl; [contradiction|].
  destruct (Nat.eqb (b_uid a) uid) eqn:E; [discriminate|].
  intros H b [<-|Hb]; [now apply Nat.eqb_neq|now apply IH].
Qed.

Lemma find_uid_none_intro uid l : (forall b, In b l -> b_uid b <> uid) -> find_uid uid l = None.
Proof.
  induction l as [|a l IH]; simpl; [reflexivity|]. intros H.
  destruct (Nat.eqb (b_uid a) uid) eqn:E.
  - apply Nat.eqb_eq in E. exfalso. apply (H a); auto.
  - apply IH. intros b Hb. apply H. now right.
Qed.

Lemma uid_at_bounds s abs uid :
  uid_at s abs = Some uid -> s_released s <= abs /\ abs < abs_end s.
Proof.
  intros H. apply uid_at_some in H. destruct H as (Hr & b & Hn & _). split; [exact Hr|].
  assert (N.to_nat (abs - s_released s) < length (s_blocks s))%nat
    by (apply nth_error_Some; congruence).
  unfold abs_end. lia.
Qed.

Lemma loc_valid_abs s l l' : l_abs l' = l_abs l -> loc_valid s l' = loc_valid s l.
Proof. unfold loc_valid. now intros ->. Qed.

Lemma loc_valid_bounds s l : loc_valid s l = true -> s_tbr s <= l_abs l /\ l_abs l < abs_end s.
Proof. exact (loc_valid_bounds s l). Qed.

Lemma UInv_drop c cl s : UInv (c :: cl) s -> UInv cl s.
Proof.
  intros [H1 H2]. constructor.
  - intros b Hb. specialize (H1 b Hb). rewrite nrefs_cons in H1. lia.
  - intros b Hb. specialize (H2 b Hb). rewrite nrefs_cons in H2. lia.
Qed.

Lemma CInv_drop w c cl s : CInv w (c :: cl) s -> CInv w cl s.
Proof.
  intros [H1 H2 H3 H4]. constructor.
  - intros c' Hc. apply H1. now right.
  - exact H2.
  - exact (proj2 H3).
  - intros wr acc k l Hc. apply (H4 wr acc k l). now right.
Qed.

Lemma DInv_drop : forall w c cl s, DInv w (c :: cl) s -> DInv w cl s.
Proof.
  intros w c cl s [HA HU HC]. constructor;
    [exact HA|eapply UInv_drop; eauto|eapply CInv_drop; eauto].
Qed.

Lemma DInv_perm : forall w cl cl' s, Permutation cl cl' -> DInv w cl s -> DInv w cl' s.
Proof.
  intros w cl cl' s HP [HA [HU1 HU2] [H1 H2 H3 H4]].
  assert (HP' : Permutation cl' cl) by now apply Permutation_sym.
  constructor; [exact HA| |].
  - constructor.
    + intros b Hb. rewrite <- (nrefs_perm _ _ _ HP). now apply HU1.
    + intros b Hb. rewrite <- (nrefs_perm _ _ _ HP). now apply HU2.
  - constructor.
    + intros c Hc. apply H1. eapply Permutation_in; eauto.
    + exact H2.
    + eapply pairwise_perm; [exact cdisj_sym|exact HP|exact H3].
    + intros wr acc k l Hc. apply (H4 wr acc k l). eapply Permutation_in; eauto.
Qed.
