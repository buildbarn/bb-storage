(** Store/SectorWriterInv.v — structural invariant of the sector writer transition
    system and [writer_writes_only_own_sectors]. *)
From Coq Require Import List Arith ZArith Bool Lia.
From BBS Require Import Store.SectorWriter Store.SectorWriterProofs Store.SectorWriterSpec
  Store.SectorWriterCommute Store.SectorWriterArith.
Import ListNotations.

Lemma upd_out {T} (l : list T) i x : length l <= i -> upd l i x = l.
Proof. revert i; induction l; intros [|i] H; cbn in *; auto; try lia. f_equal. apply IHl. lia. Qed.

Lemma Forall_upd {T} (P : T -> Prop) l i x : Forall P l -> P x -> Forall P (upd l i x).
Proof.
  revert i; induction l; intros [|i] H Hx; cbn; auto; inversion H; subst; constructor; auto.
Qed.

Lemma Forall_nth_error {T} (P : T -> Prop) l i x : Forall P l -> nth_error l i = Some x -> P x.
Proof. intros H Hn. rewrite Forall_forall in H. apply H. eapply nth_error_In; eauto. Qed.

Definition dimg : image := {| im_sec := 0; im_data := [] |}.
Definition isec (images : list image) (id : nat) : nat := im_sec (nth id images dimg).

Lemma set_img_length images id d : length (set_img images id d) = length images.
Proof. apply upd_length. Qed.

Lemma isec_set_img images id d id' : isec (set_img images id d) id' = isec images id'.
Proof.
  unfold isec, set_img. fold dimg.
  destruct (Nat.eq_dec id id') as [->|Hne]; [|rewrite nth_upd_ne by exact Hne; reflexivity].
  destruct (lt_dec id' (length images)); [rewrite nth_upd_eq by assumption; reflexivity|].
  rewrite upd_out by lia. reflexivity.
Qed.

Lemma img_data_set_img_eq images id d : id < length images -> img_data (set_img images id d) id = d.
Proof. intros H. unfold img_data, set_img. rewrite nth_upd_eq by exact H. reflexivity. Qed.

Lemma isec_app_old images l id : id < length images -> isec (images ++ l) id = isec images id.
Proof. intros H. unfold isec. rewrite app_nth1 by exact H. reflexivity. Qed.
Lemma isec_app_new images x : isec (images ++ [x]) (length images) = im_sec x.
Proof. unfold isec. rewrite app_nth2 by lia. rewrite Nat.sub_diag. reflexivity. Qed.
Lemma img_data_app_old images l id : id < length images -> img_data (images ++ l) id = img_data images id.
Proof. intros H. unfold img_data. rewrite app_nth1 by exact H. reflexivity. Qed.
Lemma img_data_app_new images x : img_data (images ++ [x]) (length images) = im_data x.
Proof. unfold img_data. rewrite app_nth2 by lia. rewrite Nat.sub_diag. reflexivity. Qed.

Section Inv.
Variable c : cfg.
Hypothesis HS : 1 <= c_sector c.
Local Notation SS := (c_sector c).

Definition t_fs (t : thread) := t_start t / SS.
Definition t_a (t : thread) := t_start t mod SS.
Definition t_end (t : thread) := t_start t + t_size t.
Definition t_x (t : thread) := t_a t + length (t_data t).

Definition wphase (t : thread) : Prop :=
  let w := t_w t in
  match w_first w with
  | Some id => t_first0 t = Some id /\ t_x t < SS /\ w_firstoff w = t_x t /\
               w_off w = c_base c + t_fs t /\ w_partial w = []
  (* [pre]: the bytes that went to the device in private sector writes or with the completed
     first sector; the writer's place on the device is right behind them *)
  | None => (t_first0 t <> None -> SS <= t_x t) /\ length (w_partial w) < SS /\
            exists pre, t_data t = pre ++ w_partial w /\
              w_off w * SS = c_base c * SS + t_start t + length pre
  end.

Definition tinv (images : list image) (t : thread) : Prop :=
  length (t_data t) <= t_size t /\
  match t_first0 t with
  | Some id => 0 < t_a t /\ id < length images /\ isec images id = t_fs t
  | None => t_a t = 0
  end /\
  match w_last (t_w t) with
  | Some id => t_end t mod SS <> 0 /\ id < length images /\ isec images id = t_end t / SS
  | None => t_end t mod SS = 0
  end /\
  wphase t.

Definition cinv (b : cursor) (images : list image) : Prop :=
  (forall id, id < length images -> length (img_data images id) = SS) /\
  (forall id id', id < id' -> id' < length images -> isec images id < isec images id') /\
  match b_shared b with
  | Some (id, _) => id + 1 = length images /\ isec images id = b_wos b
  | None => forall id, id < length images -> isec images id < b_wos b
  end.

Definition sinv (lo : nat) (s : state) : Prop :=
  ainv c lo s /\ cinv (st_cur s) (st_images s) /\ Forall (tinv (st_images s)) (st_threads s).

Lemma t_start_eq t : t_start t = t_fs t * SS + t_a t /\ t_a t < SS.
Proof. unfold t_fs, t_a. apply (sec_split SS HS). Qed.

Lemma wph_some images t id : tinv images t -> w_first (t_w t) = Some id ->
  t_first0 t = Some id /\ 0 < t_a t /\ id < length images /\ isec images id = t_fs t /\
  t_a t + length (t_data t) < SS /\ w_firstoff (t_w t) = t_a t + length (t_data t) /\
  w_off (t_w t) = c_base c + t_fs t /\ w_partial (t_w t) = [].
Proof.
  intros (T1 & T2 & T3 & T4) Hf. unfold wphase in T4. cbv zeta in T4. rewrite Hf in T4.
  destruct T4 as (F0 & Hx & Hfo & Hoff & Hp). rewrite F0 in T2. destruct T2 as (A0 & Hid & Hsec).
  unfold t_x in *. repeat split; assumption.
Qed.

Lemma wph_none images t : tinv images t -> w_first (t_w t) = None ->
  exists pre, t_data t = pre ++ w_partial (t_w t) /\
    w_off (t_w t) * SS = c_base c * SS + t_start t + length pre /\
    length (w_partial (t_w t)) < SS.
Proof.
  intros (T1 & T2 & T3 & T4) Hf. unfold wphase in T4. cbv zeta in T4. rewrite Hf in T4.
  destruct T4 as (_ & Hr & pre & Hpre & Hoff). exists pre. repeat split; assumption.
Qed.

Lemma first_done images t : tinv images t -> w_first (t_w t) = None -> t_first0 t <> None ->
  SS <= t_a t + length (t_data t).
Proof.
  intros (_ & _ & _ & T4) Hf. unfold wphase in T4. cbv zeta in T4. rewrite Hf in T4. exact (proj1 T4).
Qed.

Lemma at_end_some images t id : tinv images t -> w_first (t_w t) = Some id ->
  length (t_data t) = t_size t ->
  t_end t / SS = t_fs t /\ t_end t mod SS = t_a t + t_size t.
Proof.
  intros Ht Hf Hn. destruct (wph_some _ _ _ Ht Hf) as (_ & _ & _ & _ & Hx & _).
  destruct (t_start_eq t) as [Est _].
  replace (t_end t) with (t_fs t * SS + (t_a t + t_size t)) by (unfold t_end; lia).
  apply (sec_of SS HS). lia.
Qed.

Lemma at_end_none images t : tinv images t -> w_first (t_w t) = None ->
  length (t_data t) = t_size t ->
  exists pre, t_data t = pre ++ w_partial (t_w t) /\
    w_off (t_w t) = c_base c + t_end t / SS /\ length (w_partial (t_w t)) = t_end t mod SS /\
    t_start t + length pre = t_end t / SS * SS.
Proof.
  intros Ht Hf Hn. destruct (wph_none _ _ Ht Hf) as (pre & Hpre & Hoff & Hr).
  assert (Hn' : length (t_data t) = length pre + length (w_partial (t_w t)))
    by (rewrite Hpre, app_length; reflexivity).
  destruct (sec_split SS HS (t_end t)) as [Ee Ue].
  destruct (sec_unique SS HS (w_off (t_w t)) (length (w_partial (t_w t)))
              (c_base c + t_end t / SS) (t_end t mod SS) Hr Ue ltac:(unfold t_end in *; lia)) as [D M].
  exists pre. unfold t_end in *. repeat split; try assumption. lia.
Qed.

Lemma tinv_geom images im' t t' :
  tinv images t -> same_geom t t' ->
  length images <= length im' -> (forall id, id < length images -> isec im' id = isec images id) ->
  length (t_data t') <= t_size t' -> wphase t' -> tinv im' t'.
Proof.
  intros (H1 & H2 & H3 & H4) (G1 & G2 & G3 & G4) Hl He Hn Hw.
  split; [exact Hn|]. unfold t_a, t_fs, t_end. rewrite G1, G2, G3, G4. split; [|split; [|exact Hw]].
  - destruct (t_first0 t); [|exact H2]. destruct H2 as (A & B & C). rewrite He by exact B. repeat split; auto; lia.
  - destruct (w_last (t_w t)); [|exact H3]. destruct H3 as (A & B & C). rewrite He by exact B. repeat split; auto; lia.
Qed.

Lemma tinv_ext images images' t :
  length images <= length images' ->
  (forall id, id < length images -> isec images' id = isec images id) ->
  tinv images t -> tinv images' t.
Proof.
  intros Hl He Ht. pose proof Ht as (T1 & _ & _ & T4).
  exact (tinv_geom _ _ _ _ Ht (conj eq_refl (conj eq_refl (conj eq_refl eq_refl))) Hl He T1 T4).
Qed.

Lemma cinv_set_img b images id d :
  cinv b images -> length d = SS -> cinv b (set_img images id d).
Proof.
  intros (H1 & H2 & H3) Hd. unfold cinv. rewrite set_img_length. split; [|split].
  - intros id' Hid'. destruct (Nat.eq_dec id id') as [->|Hne].
    + rewrite img_data_set_img_eq by exact Hid'. exact Hd.
    + rewrite img_data_set_img_ne by exact Hne. auto.
  - intros. rewrite !isec_set_img. auto.
  - destruct (b_shared b) as [[i o]|]; [rewrite isec_set_img; exact H3|].
    intros. rewrite isec_set_img. auto.
Qed.

Lemma sinv_init dev b : b_shared b = None -> sinv (cpos c b) (init_state dev b).
Proof.
  intros E. split; [apply ainv_init; unfold cursor_wf; rewrite E; exact I|]. split; [|constructor].
  unfold cinv; cbn. split; [intros; lia|]. split; [intros; lia|]. rewrite E. intros; lia.
Qed.

Lemma shared_off_bounds b : cursor_wf c b ->
  shared_off b < SS /\ (b_shared b = None -> shared_off b = 0) /\ (b_shared b <> None -> 0 < shared_off b).
Proof.
  unfold shared_off, cursor_wf. destruct (b_shared b) as [[? ?]|]; repeat split; try lia; congruence.
Qed.

Lemma alloc_cinv b images size b' im' w start :
  cursor_wf c b -> cinv b images -> alloc c b images size = (b', im', w, start) ->
  cinv b' im' /\ length images <= length im' /\
  (forall id, id < length images -> isec im' id = isec images id).
Proof.
  intros Hwf (C1 & C2 & C3) Hal.
  destruct (alloc_cases c _ _ _ _ _ _ _ Hal) as (_ & _ & Hwos & Hcases). cbv zeta in *.
  destruct (shared_off_bounds b Hwf) as (Hoff & Hoff0 & Hoff1).
  destruct (sec_split SS HS (shared_off b + size)) as [Ediv Umod].
  set (cnt := (shared_off b + size) / SS) in *.
  (* all image sectors so far are at most the cursor's sector; strictly below unless shared *)
  assert (Hle : forall id, id < length images -> isec images id <= b_wos b /\
                  (b_shared b = None -> isec images id < b_wos b)).
  { intros id Hid. destruct (b_shared b) as [[id0 o]|] eqn:Hsh.
    - destruct C3 as [C3 C4]. split; [|discriminate].
      destruct (Nat.eq_dec id id0) as [->|]; [lia|]. specialize (C2 id id0 ltac:(lia) ltac:(lia)). lia.
    - split; [specialize (C3 id Hid); lia|intros _; auto]. }
  destruct Hcases as [(L0 & Sh' & ->)|[(L0 & Hc0 & (id0 & o & Sh & Sh') & ->)|(L0 & Hfresh & Sh' & ->)]].
  - (* ends on a sector boundary *)
    split; [|auto]. unfold cinv. rewrite Sh'. repeat split; auto. intros id Hid. rewrite Hwos.
    destruct (Hle id Hid) as [Hl1 Hl2]. destruct (b_shared b) eqn:Hsh.
    + specialize (Hoff1 ltac:(congruence)). destruct (Nat.eq_dec cnt 0) as [E0|]; [rewrite E0 in Ediv|]; lia.
    + specialize (Hl2 eq_refl). lia.
  - (* stays inside the shared sector *)
    split; [|auto]. rewrite Sh in C3. destruct C3 as [C3 C4]. unfold cinv. rewrite Sh'. repeat split; auto. lia.
  - (* a fresh shared sector *)
    assert (Hcnt : forall id, id < length images -> isec images id < b_wos b + cnt).
    { intros id Hid. destruct (Hle id Hid) as [Hl1 Hl2]. destruct Hfresh as [E|E]; [specialize (Hl2 E)|]; lia. }
    split; [|split; [rewrite app_length; lia|intros; apply isec_app_old; assumption]].
    unfold cinv. rewrite Sh', app_length. cbn [length]. split; [|split; [|split]].
    + intros id Hid. destruct (Nat.eq_dec id (length images)) as [->|].
      * rewrite img_data_app_new. apply repeat_length.
      * rewrite img_data_app_old by lia. apply C1. lia.
    + intros id id' H1 H2. destruct (Nat.eq_dec id' (length images)) as [->|].
      * rewrite isec_app_new, isec_app_old by lia. cbn. auto.
      * rewrite !isec_app_old by lia. apply C2; lia.
    + lia.
    + rewrite isec_app_new. cbn. lia.
Qed.

Lemma sinv_alloc lo s size s' log :
  sinv lo s -> step c s (EAlloc size) = Some (s', log) -> sinv lo s'.
Proof.
  intros Hinv Hstep. pose proof Hinv as (Ha & Hc & Ht).
  split; [eapply ainv_step; eauto|].
  cbn [step] in Hstep. destruct (has_space c (st_cur s) size); [|discriminate].
  destruct (alloc c (st_cur s) (st_images s) size) as [[[b' im'] w] start] eqn:Hal.
  inversion Hstep; subst; clear Hstep. cbn [st_cur st_images st_threads].
  destruct Ha as (Hwf & _).
  destruct (alloc_cinv _ _ _ _ _ _ _ Hwf Hc Hal) as (Hc' & Hl & He). split; [exact Hc'|].
  apply Forall_app. split; [eapply Forall_impl; [|exact Ht]; intros t; apply tinv_ext; assumption|].
  constructor; [|constructor].
  pose proof (alloc_cases c _ _ _ _ _ _ _ Hal) as (Hst & Hw & Hwos & Hcases). cbv zeta in *.
  set (b := st_cur s) in *. set (images := st_images s) in *.
  destruct (shared_off_bounds b Hwf) as (Hoff & Hoff0 & Hoff1). set (off := shared_off b) in *.
  destruct (sec_split SS HS (off + size)) as [Ediv Umod].
  set (cnt := (off + size) / SS) in *. set (lastoff := (off + size) mod SS) in *.
  assert (Hfs : start / SS = b_wos b /\ start mod SS = off) by (rewrite Hst; apply (sec_of SS HS); exact Hoff).
  assert (Hend : (start + size) / SS = b_wos b + cnt /\ (start + size) mod SS = lastoff).
  { replace (start + size) with ((b_wos b + cnt) * SS + lastoff) by (rewrite Hst; lia). apply (sec_of SS HS). exact Umod. }
  destruct Hfs as [Hfs Hta]. destruct Hend as [Hed Hem].
  destruct Hc as (_ & _ & C3). destruct Hc' as (_ & _ & C3').
  split; [cbn; lia|]. unfold wphase, t_a, t_fs, t_x, t_a, t_end.
  cbn [t_first0 t_start t_size t_w t_data length]. rewrite Hw.
  cbn [w_first w_off w_firstoff w_partial w_last length]. rewrite Hfs, Hta, Hed, Hem. split; [|split].
  - destruct (b_shared b) as [[id0 o]|] eqn:Hsh; cbn [option_map fst]; [|exact (Hoff0 eq_refl)].
    destruct C3 as [C3 C4]. specialize (Hoff1 ltac:(congruence)). rewrite He by lia. repeat split; auto; lia.
  - (* the last sector is the sector the cursor shares after the allocation *)
    assert (Hlo : match b_shared b' with Some _ => lastoff <> 0 | None => lastoff = 0 end).
    { destruct Hcases as [(L0 & -> & _)|[(L0 & _ & (id0 & o & _ & ->) & _)|(L0 & _ & -> & _)]]; assumption. }
    destruct (b_shared b') as [[id' o']|]; cbn [option_map fst]; [|exact Hlo].
    destruct C3' as [C3' C4']. rewrite C4', Hwos. repeat split; auto; lia.
  - destruct (b_shared b) as [[id0 o]|] eqn:Hsh; cbn [option_map fst].
    + specialize (Hoff1 ltac:(congruence)). repeat split; auto; lia.
    + specialize (Hoff0 eq_refl). repeat split; auto; try lia; try congruence.
      exists []. split; [reflexivity|cbn [length]; lia].
Qed.
Definition span_lo (t : thread) : nat := (c_base c + t_fs t) * SS.
Definition span_hi (t : thread) : nat := c_base c * SS + (t_end t + SS - 1) / SS * SS.
Definition in_span (t : thread) (w : dwrite) : Prop :=
  span_lo t <= fst w /\ fst w + length (snd w) <= span_hi t.

(* the writer is past its first sector: the bytes [pre0] are on the device, [priv] writes the
   bytes that follow them right behind, an incomplete last sector stays in [w_partial] *)
Definition priv_writes (t : thread) (w' : writer) (data' pre0 : list byte) (priv : list dwrite) : Prop :=
  w_first w' = None /\ length (w_partial w') < SS /\
  data' = pre0 ++ payload priv ++ w_partial w' /\
  contig (c_base c * SS + t_start t + length pre0) priv /\
  w_off w' * SS = c_base c * SS + t_start t + length pre0 + length (payload priv).

Lemma write_rest_priv t w p pre0 :
  length (w_partial w) < SS -> w_first w = None ->
  w_off w * SS = c_base c * SS + t_start t + length pre0 ->
  priv_writes t (fst (write_rest c w p)) (pre0 ++ w_partial w ++ p) pre0 (snd (write_rest c w p)) /\
  w_last (fst (write_rest c w p)) = w_last w.
Proof.
  intros Hr Hf Hoff. pose proof (write_rest_spec c w p HS Hr) as H. cbv zeta in H.
  destruct H as (H1 & H2 & H3 & H4 & H5 & _ & H7). split; [|exact H7].
  unfold priv_writes. rewrite H1, H5, H3, <- Hoff. repeat split; auto.
Qed.

Lemma priv_wphase t w' data' pre0 priv st :
  priv_writes t w' data' pre0 priv -> (t_first0 t <> None -> SS <= t_a t + length data') ->
  wphase {| t_w := w'; t_start := t_start t; t_size := t_size t; t_data := data';
            t_first0 := t_first0 t; t_status := st |}.
Proof.
  intros (Hf & Hr & Ed & _ & Hoff) Hdone. unfold wphase, t_x, t_a in *. cbn [t_w t_first0 t_start t_data].
  rewrite Hf. split; [exact Hdone|]. split; [exact Hr|]. exists (pre0 ++ payload priv).
  split; [rewrite <- app_assoc; exact Ed|rewrite app_length; lia].
Qed.

Lemma priv_in_span t w' data' pre0 priv :
  priv_writes t w' data' pre0 priv -> length data' <= t_size t -> Forall (in_span t) priv.
Proof.
  intros (_ & _ & Ed & Hct & _) Hn. apply (f_equal (@length _)) in Ed. rewrite !app_length in Ed.
  destruct (t_start_eq t) as [Est _]. pose proof (ceil_ge SS HS (t_end t)) as Hceil.
  unfold t_end in Hceil. apply Forall_forall. intros w Hin. pose proof (contig_range _ _ _ Hct Hin).
  unfold in_span, span_lo, span_hi, t_end. lia.
Qed.

Lemma write_outcome b images t p :
  cinv b images -> tinv images t -> length (t_data t) + length p <= t_size t ->
  let r := write c images (t_w t) p in let w' := snd (fst r) in
  w_last w' = w_last (t_w t) /\
  wphase {| t_w := w'; t_start := t_start t; t_size := t_size t; t_data := t_data t ++ p;
            t_first0 := t_first0 t; t_status := Active |} /\
  Forall (in_span t) (snd r) /\
  match w_first (t_w t) with
  | Some id =>
      let img' := write_at (img_data images id) (w_firstoff (t_w t)) p in
      length img' = SS /\
      if t_x t + length p <? SS
      then snd r = [] /\ w_first w' = Some id
      else exists pre0 priv, snd r = ((c_base c + t_fs t) * SS, img') :: priv /\
             length pre0 = SS - t_a t /\ priv_writes t w' (t_data t ++ p) pre0 priv
  | None => exists pre0, t_data t = pre0 ++ w_partial (t_w t) /\
              priv_writes t w' (t_data t ++ p) pre0 (snd r)
  end.
Proof.
  intros Hc Ht Hn. cbv zeta. pose proof Hc as (C1 & _). destruct (t_start_eq t) as [Est Ua].
  assert (Hn' : length (t_data t ++ p) <= t_size t) by (rewrite app_length; exact Hn).
  destruct (w_first (t_w t)) as [id|] eqn:Hf.
  - destruct (wph_some _ _ _ Ht Hf) as (F0 & A0 & Hid & Hsec & Hx & Hfo & Hoff & Hp).
    specialize (C1 id Hid). rewrite write_at_length. unfold t_x.
    destruct (Nat.ltb_spec (t_a t + length (t_data t) + length p) SS) as [Hshort|Hlong].
    + rewrite (write_first_short c images (t_w t) p id Hf C1) by (rewrite Hfo; exact Hshort).
      cbn [fst snd]. split; [reflexivity|]. split; [|auto].
      unfold wphase, t_x, t_a in *. cbn [t_w w_first t_first0 w_firstoff w_off w_partial t_start t_data].
      rewrite app_length. repeat split; auto; lia.
    + pose proof (write_first_long c images (t_w t) p id Hf C1 ltac:(lia) ltac:(lia)) as Hw.
      cbv zeta in Hw. rewrite Hw, Hp, Hfo, Hoff. clear Hw. cbn [fst snd].
      set (k := SS - (t_a t + length (t_data t))).
      match goal with |- context [write_rest c ?w1 ?p1] =>
        destruct (write_rest_priv t w1 p1 (t_data t ++ firstn k p)) as [Hpw Hl] end.
      * cbn. lia.
      * reflexivity.
      * cbn [w_off]. rewrite app_length, firstn_length. lia.
      * replace ((t_data t ++ firstn k p) ++ _ ++ skipn k p) with (t_data t ++ p) in Hpw
          by (rewrite <- app_assoc; cbn [app]; rewrite firstn_skipn; reflexivity).
        split; [exact Hl|]. split; [apply (priv_wphase _ _ _ _ _ _ Hpw); rewrite app_length; lia|].
        split; [constructor; [|exact (priv_in_span _ _ _ _ _ Hpw Hn')]|].
        { pose proof (ceil_ge SS HS (t_end t)) as Hceil. unfold in_span, span_lo, span_hi, t_end in *.
          cbn [fst snd]. rewrite write_at_length, C1. lia. }
        split; [exact C1|]. exists (t_data t ++ firstn k p). eexists.
        split; [reflexivity|]. split; [rewrite app_length, firstn_length; lia|exact Hpw].
  - destruct (wph_none _ _ Ht Hf) as (pre & Hpre & Hoff & Hr).
    rewrite (write_none c images (t_w t) p Hf). cbn [fst snd].
    destruct (write_rest_priv t (t_w t) p pre Hr Hf Hoff) as [Hpw Hl].
    rewrite app_assoc, <- Hpre in Hpw.
    split; [exact Hl|]. split; [|split; [exact (priv_in_span _ _ _ _ _ Hpw Hn')|exists pre; auto]].
    apply (priv_wphase _ _ _ _ _ _ Hpw). intros Hne.
    pose proof (first_done _ _ Ht Hf Hne). rewrite app_length. lia.
Qed.

Lemma flush_in_span b images t :
  cinv b images -> tinv images t -> length (t_data t) = t_size t ->
  Forall (in_span t) (snd (flush c images (t_w t))).
Proof.
  intros (C1 & _) Ht Hn. pose proof Ht as (_ & _ & T3 & _).
  destruct (w_last (t_w t)) as [id|] eqn:Hl; [|rewrite (flush_none c images (t_w t) Hl); constructor].
  rewrite (flush_some c images (t_w t) id Hl). cbn [fst snd]. destruct T3 as (E0 & Hid & Hsec).
  constructor; [|constructor]. unfold in_span, span_lo, span_hi. cbn [fst snd].
  rewrite write_at_length, (C1 id Hid), (ceil_succ SS HS _ E0). destruct (t_start_eq t) as [Est _].
  (* the image goes to the sector of the range's end, where the writer stands *)
  destruct (w_first (t_w t)) as [fid|] eqn:Hf.
  - destruct (wph_some _ _ _ Ht Hf) as (_ & _ & _ & _ & _ & _ & Hoff & _).
    destruct (at_end_some _ _ _ Ht Hf Hn) as [D _]. rewrite Hoff, D. lia.
  - destruct (at_end_none _ _ Ht Hf Hn) as (pre & _ & D & _ & E). rewrite D. lia.
Qed.

Lemma images_upd b images o off bytes im' :
  cinv b images -> (forall id, o = Some id -> id < length images) ->
  im' = match o with
        | Some id => set_img images id (write_at (img_data images id) off bytes)
        | None => images end ->
  cinv b im' /\ length images <= length im' /\ forall id, isec im' id = isec images id.
Proof.
  intros Hc Hid ->. destruct o as [id|]; [|auto].
  split; [apply cinv_set_img; [exact Hc|rewrite write_at_length; apply Hc, Hid; reflexivity]|].
  split; [rewrite set_img_length; lia|intros; apply isec_set_img].
Qed.

Lemma sinv_writer_step lo s e s' log k t :
  sinv lo s -> step c s e = Some (s', log) -> ev_thread e = Some k ->
  nth_error (st_threads s) k = Some t ->
  sinv lo s' /\ Forall (in_span t) log.
Proof.
  intros Hinv Hstep Hev Hk. pose proof Hinv as (Ha & Hc & Ht).
  assert (Hai : ainv c lo s') by (eapply ainv_step; eauto).
  pose proof (Forall_nth_error _ _ _ _ Ht Hk) as Htk. pose proof Htk as (T1 & _ & T3 & T4).
  assert (Hnext : forall o off bytes im' t' l', (forall id, o = Some id -> id < length (st_images s)) ->
            im' = match o with
                  | Some id => set_img (st_images s) id (write_at (img_data (st_images s) id) off bytes)
                  | None => st_images s end ->
            same_geom t t' -> length (t_data t') <= t_size t' -> wphase t' ->
            s' = set_thread s k t' im' l' -> sinv lo s').
  { intros o off bytes im' t' l' Hid Eim Hg Hn Hw Es'.
    destruct (images_upd _ _ o off bytes im' Hc Hid Eim) as (I1 & I2 & I3).
    split; [exact Hai|]. subst s'. split; [exact I1|]. cbn [set_thread st_images st_threads].
    apply Forall_upd.
    - eapply Forall_impl; [|exact Ht]. intros u. apply tinv_ext; [exact I2|intros; apply I3].
    - eapply tinv_geom; [exact Htk|exact Hg|exact I2|intros; apply I3|exact Hn|exact Hw]. }
  destruct e as [size|k' chunk|k'|k']; cbn in Hev; inversion Hev; subst k'; clear Hev.
  - destruct (proj1 (step_write_iff _ _ _ _ _ _ _ Hk) Hstep) as (_ & Hn & -> & Es').
    destruct (write_outcome _ _ _ chunk Hc Htk Hn) as (Hl & Hw & Hsp & _).
    split; [|exact Hsp]. refine (Hnext (w_first (t_w t)) (w_firstoff (t_w t)) chunk _ _ _ _ _ _ _ Hw Es').
    + intros id Hf. exact (proj1 (proj2 (proj2 (wph_some _ _ _ Htk Hf)))).
    + apply write_images.
    + repeat split; try reflexivity. exact Hl.
    + cbn. rewrite app_length. exact Hn.
  - destruct (proj1 (step_flush_iff _ _ _ _ _ _ Hk) Hstep) as (_ & Hn & -> & Es').
    split; [|exact (flush_in_span _ _ _ Hc Htk Hn)].
    refine (Hnext (w_last (t_w t)) 0 (w_partial (t_w t)) _ _ _ _ _ _ _ _ Es'); [| | |exact T1|exact T4].
    + intros id Hl. rewrite Hl in T3. tauto.
    + apply flush_images.
    + repeat split; reflexivity.
  - destruct (proj1 (step_abandon_iff _ _ _ _ _ _ Hk) Hstep) as (_ & -> & Es').
    split; [|constructor]. refine (Hnext None 0 [] _ _ _ _ eq_refl _ _ _ Es'); [discriminate| |exact T1|exact T4].
    repeat split; reflexivity.
Qed.

Lemma sinv_step lo s e s' log : sinv lo s -> step c s e = Some (s', log) -> sinv lo s'.
Proof.
  intros Hinv Hstep. destruct e as [size|k ch|k|k]; [eapply sinv_alloc; eauto| | |];
    (destruct (nth_error (st_threads s) k) as [t|] eqn:Hk;
     [exact (proj1 (sinv_writer_step lo s _ s' log k t Hinv Hstep eq_refl Hk))
     |cbn in Hstep; rewrite Hk in Hstep; discriminate]).
Qed.

End Inv.

Lemma run_sinv c dev b0 tr s : 1 <= c_sector c -> b_shared b0 = None ->
  run c (init_state dev b0) tr = Some s -> sinv c (cpos c b0) s.
Proof. intros HS Hb. exact (run_invariant c _ (sinv_step c HS _) tr _ _ (sinv_init c HS dev b0 Hb)). Qed.
