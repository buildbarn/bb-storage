(** C05, idempotence: an index invariant of the hierarchical store.

    In hierarchical mode every entry stored under an instance key (o, S a)
    is also stored, with the same location, under the canonical key (o, 0):
    uploads and refresh copies enter both keys, synchronisation copies the
    canonical entry, and parked readers carry key lists that are closed in
    the same sense.  The idempotence theorems need it for one situation: a
    less specific key of an object that was just placed may later receive an
    OLD location (an upload that started long ago finishes in a block that
    has aged meanwhile); the repeated Get then finds that old entry first,
    and it is the canonical entry - not older than the placed copy - that
    lets it synchronise instead of copying again. *)
From Coq Require Import List.
From Coq Require Import ZifyBool.
From BBS Require Import Store.Model Store.P05Frame.
Import ListNotations.
Open Scope N_scope.

Definition fk_closed (f : list key) : Prop := forall o a, In (o, S a) f -> In (o, O) f.
Definition hix (s : state) : Prop :=
  forall o a l, In ((o, S a), l) (s_index s) -> In ((o, O), l) (s_index s).
Definition tok (t : thread) : Prop :=
  match t with
  | TGet _ _ _ _ f => fk_closed f
  | TGfc _ _ _ _ _ _ => False
  | _ => True
  end.
Definition tinv (s : state) : Prop := forall tid t, thr_get (s_threads s) tid = Some t -> tok t.
Definition hinv (s : state) : Prop := hix s /\ tinv s.

Lemma fk_closed_nil : fk_closed [].
Proof. intros o a []. Qed.
Lemma fk_closed_pair o a : fk_closed [canonical_key o; (o, S a)].
Proof.
  intros o' a' [E|[E|[]]]; [discriminate|]. inversion E; subst. left. reflexivity.
Qed.

Lemma hinv_ixt s s' : ixt s s' -> hinv s -> hinv s'.
Proof.
  intros [I T] [H1 H2]. split.
  - intros o a l. rewrite I. apply H1.
  - intros tid t. rewrite T. apply H2.
Qed.
Lemma hinv_fr c s s' : fr c s s' -> hinv s -> hinv s'.
Proof. intros [_ I]. apply hinv_ixt, I. Qed.

Lemma index_put_all_in ks : forall s l k' l',
  In (k', l') (s_index (index_put_all s ks l)) <-> In (k', l') (s_index s) \/ (In k' ks /\ l' = l).
Proof.
  induction ks as [|k t IH]; intros s l k' l'; cbn [index_put_all].
  - split; [auto|]. intros [H|[[] _]]; exact H.
  - rewrite IH. destruct (same_index_put s k l) as (_ & _ & I). rewrite I. cbn [In]. split.
    + intros [[E|H]|[H1 H2]]; [inversion E; subst; right; auto|auto|right; auto].
    + intros [H|[[E|H1] H2]]; [left; right; exact H|subst; left; left; reflexivity|right; auto].
Qed.

Lemma hinv_put_all s ks l : hinv s -> fk_closed ks -> hinv (index_put_all s ks l).
Proof.
  intros [H1 H2] FC. split.
  - intros o a l'. rewrite !index_put_all_in. intros [H|[H E]].
    + left. eapply H1; eauto.
    + right. split; [eapply FC; eauto|exact E].
  - intros tid t. destruct (index_put_all_spec ks s l) as (_ & T & _). rewrite T. apply H2.
Qed.

Lemma hinv_put s o a l : hinv s -> In ((o, O), l) (s_index s) -> hinv (index_put s (o, S a) l).
Proof.
  intros [H1 H2] HC. destruct (same_index_put s (o, S a) l) as (_ & T & I). split.
  - intros o' a' l'. rewrite I. cbn [In]. intros [E|H].
    + inversion E; subst. right. exact HC.
    + right. eapply H1; eauto.
  - intros tid t. rewrite T. apply H2.
Qed.

Lemma tinv_set s tid t : tinv s -> tok t -> tinv (thr_set s tid t).
Proof.
  intros H Ht tid' t'. rewrite thr_get_set. destruct (Nat.eqb tid tid').
  - intros E; inversion E; subst. exact Ht.
  - apply H.
Qed.
Lemma tinv_rm s tid : tinv s -> tinv (thr_rm s tid).
Proof. intros H tid' t'. rewrite thr_get_rm. destruct (Nat.eqb tid tid'); [discriminate|apply H]. Qed.
Lemma hinv_set s tid t : hinv s -> tok t -> hinv (thr_set s tid t).
Proof. intros [H1 H2] Ht. split; [exact H1|apply tinv_set; auto]. Qed.
Lemma hinv_rm s tid : hinv s -> hinv (thr_rm s tid).
Proof. intros [H1 H2]. split; [exact H1|apply tinv_rm; auto]. Qed.

Lemma hinv_init c : hinv (init_state c).
Proof. split; [intros o a l []|intros tid t; discriminate]. Qed.

Lemma lookup_keys_hier w o i k :
  c_hier (w_cfg w) = true -> In k (lookup_keys w o i) -> exists a, k = (o, S a).
Proof.
  intros Hh H. unfold lookup_keys in H. rewrite Hh in H. apply in_map_iff in H.
  destruct H as (a & E & _). exists a. auto.
Qed.
