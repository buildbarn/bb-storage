(** C01 proofs: adding index entries preserves [DInv].  (The structural
    lemmas about the claim list are in P01OpsB1, [unpin] in P01OpsB3.) *)
From Coq Require Import List NArith ZArith Bool Arith Lia Permutation ZifyN ZifyNat ZifyBool.
From BBS Require Import Store.Model Store.Wf Store.P01Inv Store.P01OpsB1.
From BBS Require Store.P01OpsB3.
Import ListNotations.
Open Scope N_scope.

(** the frame of [unpin] as seen by claims and index entries (for callers
    that need more than [DInv]) *)
Definition unpin_spec := P01OpsB3.unpin_spec.

(** one new entry: what has to be shown about it *)
Lemma index_put_inv w cl s k l :
  DInv w cl s ->
  l_abs l < abs_end s ->
  (loc_valid s l = true -> idx_ok w s k l) ->
  (forall wr acc, In (CW wr acc) cl -> loc_valid s l = true ->
                  uid_at s (l_abs l) = Some (wr_uid wr) ->
                  rdisj (wr_off wr) (wr_size wr) (l_off l) (l_size l)) ->
  DInv w cl (index_put s k l).
Proof.
  intros [HA HU HC] Hlt Hidx Hsep.
  constructor.
  - destruct HA as [h1 h2 h3 h4 h5 h6 h7 h8 h9 h10 h11].
    constructor;
      [exact h1|exact h2|exact h3|exact h4|exact h5|exact h6|exact h7|exact h8|exact h9|exact h10|].
    intros k' l' Hi. change (In (k', l') ((k, l) :: s_index s)) in Hi.
    destruct Hi as [E|Hi]; [inversion E; subst; exact Hlt|eapply h11; exact Hi].
  - destruct HU as [u1 u2]. constructor; [exact u1|exact u2].
  - destruct HC as [c1 c2 c3 c4]. constructor.
    + intros c Hc. specialize (c1 c Hc). destruct c; exact c1.
    + intros k' l' Hi Hv. change (In (k', l') ((k, l) :: s_index s)) in Hi.
      change (loc_valid s l' = true) in Hv.
      change (idx_ok w s k' l').
      destruct Hi as [E|Hi]; [inversion E; subst; auto|auto].
    + exact c3.
    + intros wr acc k' l' Hc Hi Hv Hu. change (In (k', l') ((k, l) :: s_index s)) in Hi.
      change (loc_valid s l' = true) in Hv.
      change (uid_at s (l_abs l') = Some (wr_uid wr)) in Hu.
      destruct Hi as [E|Hi]; [inversion E; subst; eauto|eauto].
Qed.

Lemma index_put_sub_inv : forall w cl s k0 l k off len,
  DInv w cl s -> In (k0, l) (s_index s) -> loc_valid s l = true ->
  content w (fst k) = slice (content w (fst k0)) (N.to_nat off) (N.to_nat len) ->
  (N.to_nat off + N.to_nat len <= length (content w (fst k0)))%nat ->
  DInv w cl (index_put s k {| l_abs := l_abs l; l_off := l_off l + off; l_size := len |}).
Proof.
  intros w cl s k0 l k off len HD Hi Hv Hc Hb.
  pose proof HD as [HA HU HC].
  destruct (c_idx _ _ _ HC _ _ Hi Hv) as (uid & cur & reg & Hu & Hbi & Hle & Hdat).
  destruct (binfo_in _ _ _ _ Hbi) as (b & _ & Hbl & Hbu & Hbc & Hbr).
  pose proof (a_cur _ _ HA b Hbl) as Hcur.
  pose proof (a_dev_live _ _ HA b Hbl) as Hdev.
  rewrite Hbc in Hcur. rewrite Hbr in Hdev.
  assert (Hsz : length (content w (fst k0)) = N.to_nat (l_size l)).
  { rewrite <- Hdat. unfold bslice. apply slice_length. lia. }
  assert (Hol : off + len <= l_size l) by lia.
  apply index_put_inv; [exact HD| | |].
  - exact (a_idx _ _ HA _ _ Hi).
  - intros _. exists uid, cur, reg. cbn [l_abs l_off l_size].
    split; [exact Hu|]. split; [exact Hbi|]. split; [lia|].
    rewrite Hc, <- Hdat. unfold bslice.
    rewrite slice_slice by lia. f_equal. lia.
  - cbn [l_abs l_off l_size]. intros wr acc Hcw _ Hu'.
    pose proof (c_sep_idx _ _ _ HC wr acc k0 l Hcw Hi Hv Hu') as Hr.
    unfold rdisj in *. lia.
Qed.

Lemma index_put_copy_inv : forall w cl s k0 l k,
  DInv w cl s -> In (k0, l) (s_index s) -> loc_valid s l = true -> fst k = fst k0 ->
  DInv w cl (index_put s k l).
Proof.
  intros w cl s k0 l k HD Hi Hv Hk.
  pose proof HD as [HA HU HC].
  apply index_put_inv; [exact HD| | |].
  - exact (a_idx _ _ HA _ _ Hi).
  - intros _. destruct (c_idx _ _ _ HC _ _ Hi Hv) as (uid & cur & reg & Hu & Hbi & Hle & Hdat).
    exists uid, cur, reg. rewrite Hk. auto.
  - intros wr acc Hcw _ Hu'. exact (c_sep_idx _ _ _ HC wr acc k0 l Hcw Hi Hv Hu').
Qed.

Lemma cu_publish1 w cl s wr o k :
  DInv w cl s -> In (CU wr o) cl -> s_tbr s <= wr_abs wr -> fst k = o ->
  DInv w cl (index_put s k {| l_abs := wr_abs wr; l_off := wr_off wr; l_size := wr_size wr |}).
Proof.
  intros HD Hin Ht Hk.
  pose proof HD as [HA HU HC].
  pose proof (c_claims _ _ _ HC _ Hin) as Hcu. cbn [claim_ok] in Hcu.
  destruct Hcu as (Hnu & Habs & Hcurb & Hpub).
  destruct (Hpub Ht) as (cur & reg & Hu & Hbi & Hdat).
  apply index_put_inv; [exact HD| | |]; cbn [l_abs l_off l_size].
  - exact Habs.
  - intros _. exists (wr_uid wr), cur, reg. cbn [l_abs l_off l_size].
    rewrite Hk. repeat split; auto. eapply Hcurb; eauto.
  - intros wr' acc' Hcw _ Hu'.
    assert (Hue : wr_uid wr = wr_uid wr') by congruence.
    assert (Hne : CU wr o <> CW wr' acc') by discriminate.
    destruct (pairwise_in _ _ _ _ (c_sep _ _ _ HC) Hin Hcw Hne) as [Hd|Hd];
      unfold cdisj in Hd; cbn [c_isw c_uid c_off c_size orb] in Hd.
    + apply rdisj_sym, Hd; [reflexivity|exact Hue].
    + apply Hd; [reflexivity|now symmetry].
Qed.

Lemma cu_publish_inv : forall w cl s wr o keys,
  DInv w cl s -> In (CU wr o) cl -> s_tbr s <= wr_abs wr -> (forall k, In k keys -> fst k = o) ->
  DInv w cl (index_put_all s keys {| l_abs := wr_abs wr; l_off := wr_off wr; l_size := wr_size wr |}).
Proof.
  intros w cl s wr o keys. revert s.
  induction keys as [|k t IH]; intros s HD Hin Ht Hk; cbn [index_put_all]; [exact HD|].
  apply IH.
  - apply cu_publish1 with (o := o); auto. apply Hk. now left.
  - exact Hin.
  - exact Ht.
  - intros k' Hk'. apply Hk. now right.
Qed.
