(** C05: the counter machine.

    Every operation of the store model changes the placement counters
    (length of the block list, old/current/new, totalBlocksReleased,
    totalBlocksToBeReleased, the ghost push-back and negative-verdict
    counters) only through a handful of atomic moves.  This file defines the
    projection of a state to these counters, the atomic moves, and proves the
    counting invariants of C05 on the atomic moves only.  P05Frame.v shows
    it for the sub-operations of the model, P05Step.v ([step_ext]) for
    every [step]: each is a finite sequence of atomic moves. *)
From Coq Require Import List NArith ZArith Bool Arith Lia Relations.
From Coq Require Import ZifyN ZifyNat ZifyBool.
From BBS Require Import Store.Model.
Import ListNotations.
Open Scope N_scope.

Record cnt := {
  k_len : nat; k_old : nat; k_cur : nat; k_new : nat;
  k_rel : N; k_tbr : N; k_pb : nat; k_negs : nat }.

Definition proj (s : state) : cnt :=
  {| k_len := length (s_blocks s); k_old := s_old s; k_cur := s_cur s; k_new := s_new s;
     k_rel := s_released s; k_tbr := s_tbr s; k_pb := s_pushbacks s; k_negs := s_negs s |}.

Definition k_pop (k : cnt) : cnt :=
  match k_len k with
  | O => k
  | S n => {| k_len := n; k_old := k_old k; k_cur := k_cur k; k_new := k_new k;
              k_rel := k_rel k + 1; k_tbr := k_tbr k; k_pb := k_pb k; k_negs := k_negs k |}
  end.
Definition k_push (k : cnt) : cnt :=
  {| k_len := S (k_len k); k_old := k_old k; k_cur := k_cur k; k_new := k_new k;
     k_rel := k_rel k; k_tbr := k_tbr k; k_pb := S (k_pb k); k_negs := k_negs k |}.
Definition k_counts (k : cnt) (o c n : nat) : cnt :=
  {| k_len := k_len k; k_old := o; k_cur := c; k_new := n;
     k_rel := k_rel k; k_tbr := k_tbr k; k_pb := k_pb k; k_negs := k_negs k |}.
Definition k_settbr (k : cnt) (t : N) : cnt :=
  {| k_len := k_len k; k_old := k_old k; k_cur := k_cur k; k_new := k_new k;
     k_rel := k_rel k; k_tbr := t; k_pb := k_pb k; k_negs := k_negs k |}.
Definition k_bump (k : cnt) (x : N) : cnt :=
  {| k_len := k_len k; k_old := k_old k; k_cur := k_cur k; k_new := k_new k;
     k_rel := k_rel k; k_tbr := N.max (k_tbr k) x; k_pb := k_pb k; k_negs := S (k_negs k) |}.
Definition k_dec (k : cnt) : cnt :=
  match k_old k, k_cur k with
  | S o, _ => k_counts k o (k_cur k) (k_new k)
  | O, S cu => k_counts k O cu (k_new k)
  | O, O => k_counts k O O (pred (k_new k))
  end.

Inductive catom (c : config) : cnt -> cnt -> Prop :=
| ca_release k : k_rel k < k_tbr k -> catom c k (k_dec (k_pop k))
      (* loop 1 of findBlockWithSpace: honour a quarantine request *)
| ca_grow k : catom c k (k_counts (k_push k) (k_old k) (k_cur k) (S (k_new k)))
      (* loop 2: one more new block *)
| ca_shift k : (0 < k_new k)%nat -> catom c k (k_counts k (k_old k) (S (k_cur k)) (pred (k_new k)))
      (* loop 3: surplus new block becomes current *)
| ca_rot_cur k : catom c k (k_counts (k_push k) (k_old k) (S (k_cur k)) (k_new k))
      (* loop 3, mutable policy: push back, current grows *)
| ca_rot_old k : (S (k_old k) <= c_old c)%nat ->
      catom c k (k_counts (k_push k) (S (k_old k)) (k_cur k) (k_new k))
      (* loop 3: push back, old grows (initial fill of the old blocks) *)
| ca_rot_pop k : (c_old c < S (k_old k))%nat ->
      catom c k (let k4 := k_pop (k_counts (k_push k) (S (k_old k)) (k_cur k) (k_new k)) in
                 let k5 := k_counts k4 (pred (k_old k4)) (k_cur k4) (k_new k4) in
                 k_settbr k5 (N.max (k_tbr k5) (k_rel k5)))
      (* loop 3, steady state: push back, drop the oldest old block *)
| ca_bump k x : catom c k (k_bump k x).
      (* a negative data-integrity verdict: quarantine up to x *)

Definition creach (c : config) : cnt -> cnt -> Prop := clos_refl_trans _ (catom c).

Lemma creach_refl c k : creach c k k.
Proof. apply rt_refl. Qed.
Lemma creach_trans c a b d : creach c a b -> creach c b d -> creach c a d.
Proof. apply rt_trans. Qed.
Lemma creach_atom c a b : catom c a b -> creach c a b.
Proof. apply rt_step. Qed.
Lemma creach_eq c a b : a = b -> creach c a b.
Proof. intros ->. apply rt_refl. Qed.

Lemma creach_ind_atoms c (Q : cnt -> Prop) :
  (forall a b, catom c a b -> Q a -> Q b) -> forall a b, creach c a b -> Q a -> Q b.
Proof.
  intros H a b R. induction R; eauto.
Qed.

Definition k_end (k : cnt) : N := k_rel k + N.of_nat (k_len k).

Definition kmono (a b : cnt) : Prop :=
  (k_pb a <= k_pb b)%nat /\ (k_negs a <= k_negs b)%nat /\ k_tbr a <= k_tbr b /\
  k_rel a <= k_rel b /\ k_end a <= k_end b.

(* projections of the moves that only rebuild the record compute *)
Ltac kfields := cbn [k_len k_old k_cur k_new k_rel k_tbr k_pb k_negs k_push k_counts k_settbr k_bump].

Lemma release_fields k : let b := k_dec (k_pop k) in
  k_len b = pred (k_len k) /\ k_end b = k_end k /\ k_old b = pred (k_old k) /\
  (k_old b + k_cur b + k_new b = pred (k_old k + k_cur k + k_new k))%nat /\
  k_tbr b = k_tbr k /\ k_pb b = k_pb k /\ k_negs b = k_negs k.
Proof.
  destruct k as [len old cur new rel tbr pb negs]. unfold k_end.
  destruct len; (destruct old; [destruct cur|]); cbn; lia.
Qed.

Lemma rot_pop_fields k :
  (let k4 := k_pop (k_counts (k_push k) (S (k_old k)) (k_cur k) (k_new k)) in
   let k5 := k_counts k4 (pred (k_old k4)) (k_cur k4) (k_new k4) in
   k_settbr k5 (N.max (k_tbr k5) (k_rel k5))) =
  {| k_len := k_len k; k_old := k_old k; k_cur := k_cur k; k_new := k_new k; k_rel := k_rel k + 1;
     k_tbr := N.max (k_tbr k) (k_rel k + 1); k_pb := S (k_pb k); k_negs := k_negs k |}.
Proof. reflexivity. Qed.

Lemma catom_mono c a b : catom c a b -> kmono a b.
Proof.
  unfold kmono, k_end. destruct 1 as [k H|k|k H|k|k H|k H|k x]; [|try rewrite rot_pop_fields; kfields; lia..].
  destruct (release_fields k) as (F1 & F2 & _ & _ & F4 & F5 & F6). unfold k_end in F2.
  rewrite F4, F5, F6. lia.
Qed.

Lemma creach_mono c a b : creach c a b -> kmono a b.
Proof.
  intros R. induction R.
  - eapply catom_mono; eauto.
  - unfold kmono; lia.
  - unfold kmono in *; lia.
Qed.

Record kinv (c : config) (k : cnt) : Prop := {
  ki_len : k_len k = (k_old k + k_cur k + k_new k)%nat;
  ki_rel_tbr : k_rel k <= k_tbr k;
  ki_pb : k_rel k + N.of_nat (k_len k) = N.of_nat (k_pb k);
  ki_old : (k_old k <= c_old c)%nat;
  ki_noneg : k_negs k = O -> k_tbr k <= k_rel k;
}.

Lemma kinv_init c : kinv c (proj (init_state c)).
Proof. constructor; cbn; lia. Qed.

Lemma catom_kinv c a b : catom c a b -> kinv c a -> kinv c b.
Proof.
  destruct 1 as [k H|k|k H|k|k H|k H|k x]; intros [I1 I2 I3 I4 I5];
    [|constructor; try rewrite rot_pop_fields; kfields; lia..].
  destruct (release_fields k) as (F1 & F2 & F3 & FS & F4 & F5 & F6). unfold k_end in F2.
  constructor; rewrite ?F3, ?F4, ?F5, ?F6; lia.
Qed.

Lemma creach_kinv c a b : creach c a b -> kinv c a -> kinv c b.
Proof. apply creach_ind_atoms. apply catom_kinv. Qed.

(** [T] is the absolute number of a block, [P0] the push-back count and [n0]
    the negative-verdict count at the moment of the touch.  As long as no
    further negative verdict occurs:
    - released + old never exceeds T by more than the push-backs since;
    - the quarantine mark never exceeds T by more than the push-backs since
      in excess of c_old. *)
Definition surv (c : config) (T : N) (P0 n0 : nat) (k : cnt) : Prop :=
  (n0 <= k_negs k)%nat /\ (P0 <= k_pb k)%nat /\
  (k_negs k = n0 ->
     k_tbr k + N.of_nat (c_old c) + N.of_nat P0 <= T + N.max (N.of_nat (k_pb k)) (N.of_nat P0 + N.of_nat (c_old c)) /\
     k_rel k + N.of_nat (c_old c) + N.of_nat P0 <= T + N.max (N.of_nat (k_pb k)) (N.of_nat P0 + N.of_nat (c_old c)) /\
     k_rel k + N.of_nat (k_old k) + N.of_nat P0 <= T + N.of_nat (k_pb k)).

Lemma surv_start c T k :
  k_tbr k <= T -> k_rel k + N.of_nat (k_old k) <= T -> surv c T (k_pb k) (k_negs k) k.
Proof. unfold surv; intros; lia. Qed.

Lemma catom_surv c T P0 n0 a b : catom c a b -> surv c T P0 n0 a -> surv c T P0 n0 b.
Proof.
  unfold surv. destruct 1 as [k H|k|k H|k|k H|k H|k x]; intros (S1 & S2 & S3);
    [|try rewrite rot_pop_fields; kfields; lia..].
  destruct (release_fields k) as (F1 & F2 & F3 & _ & F4 & F5 & F6). unfold k_end in F2.
  rewrite F3, F4, F5, F6. lia.
Qed.

Lemma creach_surv c T P0 n0 a b : creach c a b -> surv c T P0 n0 a -> surv c T P0 n0 b.
Proof. apply creach_ind_atoms. intros; eapply catom_surv; eauto. Qed.

Lemma surv_weaken c T P0 P0' n0 k : (P0' <= P0)%nat -> surv c T P0 n0 k -> surv c T P0' n0 k.
Proof. unfold surv; intros; lia. Qed.

Lemma surv_valid c T P0 n0 k :
  surv c T P0 n0 k -> k_negs k = n0 -> (k_pb k - P0 <= c_old c)%nat -> k_tbr k <= T.
Proof. unfold surv; intros; lia. Qed.

(** The counting core, on the counter machine: a block that is not old
    ([rel + old <= T]) and not quarantined ([tbr <= T]) in [a] is not
    quarantined in any [b] reached with at most c_old push-backs and without
    a negative verdict; it is still below the end of the list. *)
Theorem nonold_survives_cnt c a b T :
  creach c a b ->
  k_tbr a <= T -> k_rel a + N.of_nat (k_old a) <= T -> T < k_end a ->
  k_negs b = k_negs a -> (k_pb b - k_pb a <= c_old c)%nat ->
  k_tbr b <= T /\ k_rel b <= T /\ T < k_end b.
Proof.
  intros R H1 H2 H3 H4 H5.
  pose proof (creach_surv c T _ _ a b R (surv_start c T a H1 H2)) as S.
  pose proof (creach_mono c a b R) as M. unfold kmono in M.
  pose proof (surv_valid c T _ _ b S H4 H5).
  assert (k_rel b <= T).
  { destruct S as (_ & _ & S). specialize (S H4). lia. }
  lia.
Qed.

(** The bound is tight: with one more push-back the block may be gone
    (steady state: old = c_old, the touched block is the oldest non-old one). *)
Example bound_is_tight :
  let c := {| c_bs := 4; c_old := 1; c_cur := 0; c_new := 1; c_mutable := false; c_nblocks := 0;
              c_hier := false; c_inst_keys := false; c_validate := false |} in
  let a := {| k_len := 2; k_old := 1; k_cur := 0; k_new := 1; k_rel := 0; k_tbr := 0; k_pb := 2; k_negs := 0 |} in
  exists b, creach c a b /\ k_negs b = k_negs a /\ (k_pb b - k_pb a = S (c_old c))%nat /\ 1 < k_tbr b.
Proof.
  cbv zeta.
  eexists. split.
  - eapply creach_trans; [apply creach_atom; apply ca_rot_pop; cbn; lia|].
    apply creach_atom; apply ca_rot_pop; cbn; lia.
  - vm_compute. repeat split; reflexivity.
Qed.
