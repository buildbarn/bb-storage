(** C05: refutation witnesses (late-stamped retention - clauses 5
    and 6 of the R05 monitor - is violated on the model's own observations;
    both witnesses replay on the real implementation: corpus/C05) and
    non-vacuity instances. *)
From Coq Require Import List NArith ZArith Bool Arith Lia.
From BBS Require Import Common.Sx Store.Model Store.Wf Store.WfTids Run.RStore Run.R01 Run.R05.
From BBS Require Import Store.P05Cnt Store.P05Frame Store.P05Ops Store.P05Step Store.P05Surv Store.P05Mon Store.P05Inv Store.P05Main Store.P05Touch.
Import ListNotations.
Open Scope Z_scope.

(** encoders (inverse of RStore's decoders on these instances) *)
Definition enc_cfg (c : config) : sx :=
  L [of_N (c_bs c); of_nat (c_old c); of_nat (c_cur c); of_nat (c_new c); of_bool (c_mutable c);
     of_nat (c_nblocks c); of_bool (c_hier c); of_bool (c_inst_keys c); of_bool (c_validate c)].
Definition enc_op (e : op) : sx :=
  match e with
  | OPutStart t o i => L [A 1; of_nat t; of_nat o; of_nat i]
  | OPutChunk t d => L [A 2; of_nat t; of_Ns d]
  | OPutEnd t err => L [A 3; of_nat t; A err]
  | OGetOpen t o i => L [A 4; of_nat t; of_nat o; of_nat i]
  | OGetConsume t => L [A 5; of_nat t]
  | OFindMissing ds => L [A 6; L (map (fun d => L [of_nat (fst d); of_nat (snd d)]) ds)]
  | OGfcStart t p i ch => L [A 7; of_nat t; of_nat p; of_nat i; of_nat ch]
  | OGfcSlice t sl => L [A 8; of_nat t; L (map (fun d => L [of_nat (fst d); of_N (fst (snd d)); of_N (snd (snd d))]) sl)]
  | OCorrupt r off len => L [A 9; of_nat r; of_N off; of_N len]
  end.
Definition enc_inp (w : world) (es : list op) : sx :=
  L [enc_cfg (w_cfg w); L (map of_Ns (w_objs w)); L (map of_nats (w_anc w)); L (map enc_op es)].

Definition objs : list (list N) := map (fun k => [k; k; k; k]%N) [1; 2; 3; 4; 5; 6]%N.
Definition put (t o : nat) : list op := [OPutStart t o 0; OPutChunk t (nth o objs []); OPutEnd t 0].
Definition cfg (old : nat) (hier : bool) : config :=
  {| c_bs := 4%N; c_old := old; c_cur := 0; c_new := 1; c_mutable := false; c_nblocks := 0;
     c_hier := hier; c_inst_keys := hier; c_validate := false |}.
Definition world_of (c : config) : world := {| w_cfg := c; w_objs := objs; w_anc := [[0%nat]] |}.

(** Witness A: a reader held open across rotations.  old=1, cur=0, new=1,
    one object per block.  The reader of object 0 is opened, two uploads
    rotate its block out, the reader is consumed (served from the pinned
    block) - the monitor stamps the touch now - and the next Get finds
    nothing: 0 push-backs after the stamp. *)
Definition wA : world := world_of (cfg 1 false).
Definition esA : list op :=
  put 1 0 ++ [OGetOpen 9 0 0] ++ put 2 1 ++ put 3 2 ++ [OGetConsume 9; OGetOpen 10 0 0].

Example witnessA_wellformed :
  wf_world wA = true /\ wf_ops wA [] esA = true /\ wf_tids esA = true /\
  dec_world (enc_inp wA esA) = wA /\ dec_ops (enc_inp wA esA) = esA.
Proof. vm_compute. repeat split. Qed.
Example witnessA_integrity : integ wA (init_state (w_cfg wA)) esA.
Proof. vm_compute. repeat split. Qed.
Example clause5_refuted :
  mon05 (enc_inp wA esA) (run_store (enc_inp wA esA)) = [5].
Proof. vm_compute. reflexivity. Qed.
Example witnessA_early_silent : mon05_early wA esA = [].
Proof. vm_compute. reflexivity. Qed.
(** the literal touch statement for Get is false: after the successful
    OGetConsume the object is under no lookup key *)
Example get_consume_literal_refuted :
  let es := put 1 0 ++ [OGetOpen 9 0 0] ++ put 2 1 ++ put 3 2 ++ [OGetConsume 9] in
  let s := fst (run wA (init_state (w_cfg wA)) es) in
  nth 10 (snd (run wA (init_state (w_cfg wA)) es)) Bad = Done cOK (nth 0 objs []) /\
  least_specific s (lookup_keys wA 0 0) = None.
Proof. vm_compute. split; reflexivity. Qed.

(** Witness B: a FindMissing with two digests.  old=2, cur=0, new=1.  Both
    objects sit in old blocks; refreshing the second one rotates the block
    holding the fresh copy of the first one into the old region.  The call
    returns after 5 push-backs (stamp); object 0 is lost at push-back 7:
    2 <= c_old push-backs after the stamp.  The guarantee is short by the
    one push-back performed inside the call after the first refresh. *)
Definition wB : world := world_of (cfg 2 false).
Definition esB : list op :=
  put 1 0 ++ put 2 1 ++ put 3 2 ++ [OFindMissing [(0, 0); (1, 0)]%nat] ++ put 4 3 ++ put 5 4 ++ [OGetOpen 10 0 0].

Example witnessB_wellformed :
  wf_world wB = true /\ wf_ops wB [] esB = true /\ wf_tids esB = true /\
  dec_world (enc_inp wB esB) = wB /\ dec_ops (enc_inp wB esB) = esB.
Proof. vm_compute. repeat split. Qed.
Example witnessB_integrity : integ wB (init_state (w_cfg wB)) esB.
Proof. vm_compute. repeat split. Qed.
Example clause6_refuted :
  mon05 (enc_inp wB esB) (run_store (enc_inp wB esB)) = [6].
Proof. vm_compute. reflexivity. Qed.
Example witnessB_early_silent : mon05_early wB esB = [].
Proof. vm_compute. reflexivity. Qed.
(** the literal touch statement for multi-digest FindMissing is false: when
    the call returns, object 0 (reported present) is at an OLD location *)
Example find_missing_multi_literal_refuted :
  let es := put 1 0 ++ put 2 1 ++ put 3 2 ++ [OFindMissing [(0, 0); (1, 0)]%nat] in
  let s := fst (run wB (init_state (w_cfg wB)) es) in
  nth 9 (snd (run wB (init_state (w_cfg wB)) es)) Bad = Missing cOK [] /\
  option_map (needs_refresh s) (index_get s (0, 0)%nat) = Some true.
Proof. vm_compute. split; reflexivity. Qed.

(** Witness C: stale monitor bookkeeping when thread ids are re-used
    (excluded by wf_tids; the harness never does it).  Hierarchical store,
    old=1.  Reader 9 of object 0 is opened and consumed through OGfcSlice
    (the monitor's table keeps the entry); object 0 is rotated out; a
    composite read of object 2 re-uses id 9 and is consumed by OGetConsume:
    the R05 monitor books a touch of object 0: with the stamp of the first
    open for clause 1 (a true statement about object 0: silent), with the
    current stamp for clause 5 (reported). *)
Definition wC : world := world_of (cfg 1 true).
Definition esC : list op :=
  put 1 0 ++ [OGetOpen 9 0 0; OGfcSlice 9 []] ++ put 2 1 ++ put 3 2 ++
  [OGfcStart 9 2 0 2; OGetConsume 9; OGetOpen 10 0 0].
Example reused_thread_id_confuses_monitor :
  wf_world wC = true /\ wf_tids esC = false /\
  mon05 (enc_inp wC esC) (run_store (enc_inp wC esC)) = [5] /\ mon05_early wC esC = [].
Proof. vm_compute. repeat split. Qed.

(** Non-vacuity: a schedule with a refreshing single-digest
    FindMissing (object 1, stamp 4), a refreshing Get (object 2), and the
    loss of object 1 at push-back 7 = stamp + c_old + 1 (NOT_FOUND, rightly
    not reported): all hypotheses of the monitor theorem hold and the
    monitor is silent. *)
Definition esD : list op :=
  put 1 0 ++ put 2 1 ++ put 3 2 ++ [OFindMissing [(1, 0)]%nat] ++ [OGetOpen 9 2 0; OGetConsume 9] ++
  put 4 3 ++ put 5 4 ++ [OGetOpen 10 1 0; OGetOpen 11 2 0; OGetConsume 11].
Example monitor_theorem_non_vacuous :
  wf_world wB = true /\ wf_ops wB [] esD = true /\ wf_tids esD = true /\
  mon05 (enc_inp wB esD) (run_store (enc_inp wB esD)) = [] /\
  map (fun x => match snd (snd x) with Done c _ => c | Missing c _ => c | _ => (-9) end) (run_x wB esD)
  = [-9; -9; 0; -9; -9; 0; -9; -9; 0; 0; -9; 0; -9; -9; 0; -9; -9; 0; 5; -9; 0]
  /\ s_pushbacks (fst (run wB (init_state (w_cfg wB)) esD)) = 8%nat.
Proof. vm_compute. repeat split. Qed.
Example monitor_theorem_non_vacuous_integ : integ wB (init_state (w_cfg wB)) esD.
Proof. vm_compute. repeat split. Qed.
