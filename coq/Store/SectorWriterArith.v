(** Store/SectorWriterArith.v — byte offsets and sectors.  For a sector size [s >= 1], [p / s] is
    the sector of byte offset [p] and [p mod s] its place inside that sector.  The facts
    about them that the sector writer proofs use are collected here, for variables, so that
    no other file has to reason about [/] and [mod]: everywhere else a sector is a number [q]
    with [q * s <= p < (q + 1) * s], which is linear in the atoms [q * s]. *)
From Coq Require Import Arith Lia.

Section Sectors.
Variable s : nat.
Hypothesis Hs : 1 <= s.

Lemma sec_split p : p = p / s * s + p mod s /\ p mod s < s.
Proof.
  pose proof (Nat.div_mod p s ltac:(lia)). pose proof (Nat.mod_upper_bound p s ltac:(lia)). lia.
Qed.

Lemma sec_of q r : r < s -> (q * s + r) / s = q /\ (q * s + r) mod s = r.
Proof.
  intros H. split; symmetry.
  - apply Nat.div_unique with r; lia.
  - apply Nat.mod_unique with q; lia.
Qed.

Lemma sec_bounds p : p / s * s <= p < (p / s + 1) * s.
Proof. destruct (sec_split p). lia. Qed.

Lemma sec_in q p : q * s <= p < (q + 1) * s -> p / s = q /\ p mod s = p - q * s.
Proof.
  intros H. destruct (sec_of q (p - q * s) ltac:(lia)) as [D M].
  replace (q * s + (p - q * s)) with p in D, M by lia. split; assumption.
Qed.

Lemma sec_unique q r q' r' : r < s -> r' < s -> q * s + r = q' * s + r' -> q = q' /\ r = r'.
Proof.
  intros H H' E. destruct (sec_of q r H) as [D M]. rewrite E in D, M.
  destruct (sec_of q' r' H') as [D' M']. split; congruence.
Qed.

Lemma sec_mono p p' : p <= p' -> p / s <= p' / s.
Proof. intros H. apply Nat.div_le_mono; lia. Qed.

Lemma mul_lt_cancel a b : a * s < b * s -> a < b.
Proof. intros H. apply (Nat.mul_lt_mono_pos_r s); [lia|exact H]. Qed.

Lemma mul_lt_succ a b : a * s < b * s -> (a + 1) * s <= b * s.
Proof. intros H. apply Nat.mul_le_mono_r. apply mul_lt_cancel in H. lia. Qed.

Lemma sec_ge q p : q * s <= p -> q <= p / s.
Proof. intros H. apply Nat.div_le_lower_bound; lia. Qed.

Lemma sec_lt p q : p < q * s -> p / s < q.
Proof. intros H. apply Nat.div_lt_upper_bound; lia. Qed.

Lemma sec_below p q : p / s < q -> p < q * s.
Proof.
  intros H. destruct (sec_bounds p) as [_ U].
  assert ((p / s + 1) * s <= q * s) by (apply Nat.mul_le_mono_r; lia). lia.
Qed.

(* [b * s + p]: device position of offset [p] of a block that starts at sector [b] *)
Lemma sec_at b q p : p / s = q ->
  (b + q) * s <= b * s + p < (b + q + 1) * s /\ b * s + p - (b + q) * s = p mod s.
Proof. intros <-. destruct (sec_split p). lia. Qed.

Lemma sec_not_at b q p : p / s <> q -> b * s + p < (b + q) * s \/ (b + q + 1) * s <= b * s + p.
Proof.
  intros H. destruct (sec_bounds p) as [L U].
  destruct (lt_dec p (q * s)) as [|G]; [left; lia|right].
  destruct (lt_dec p ((q + 1) * s)) as [I|]; [|lia].
  destruct (sec_in q p ltac:(lia)). congruence.
Qed.

Lemma ceil_ge n : n <= (n + s - 1) / s * s.
Proof. destruct (sec_bounds (n + s - 1)). lia. Qed.

Lemma ceil_succ n : n mod s <> 0 -> (n + s - 1) / s = n / s + 1.
Proof.
  intros H. destruct (sec_split n) as [E U].
  symmetry. apply Nat.div_unique with (n mod s - 1); lia.
Qed.

Lemma ceil_exact n : n mod s = 0 -> (n + s - 1) / s * s = n.
Proof.
  intros H. destruct (sec_split n) as [E U].
  replace ((n + s - 1) / s) with (n / s); [lia|].
  apply Nat.div_unique with (s - 1); lia.
Qed.

Lemma floor_ge q p : q * s <= p -> q * s <= p / s * s.
Proof. intros H. apply Nat.mul_le_mono_r. apply sec_ge. exact H. Qed.

Lemma ceil_le n m : n <= m * s -> (n + s - 1) / s * s <= m * s.
Proof.
  intros H. destruct (Nat.eq_dec (n mod s) 0) as [E|E]; [rewrite (ceil_exact n E); exact H|].
  rewrite (ceil_succ n E). apply mul_lt_succ. destruct (sec_split n). lia.
Qed.
End Sectors.
