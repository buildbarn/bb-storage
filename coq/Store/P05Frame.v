(** C05: the primitive moves and the sub-operations of the store model
    ([pop_front], [push_back], [find_block_with_space], [ocn_put],
    [finalize], [read_validated], [index_put_all], ...) move the counters
    only by the atomic moves of P05Cnt.v, never remove an index entry and
    leave the parked operations alone ([same], [fr]).  The same for a whole
    [step] is in P05Step.v. *)
From Coq Require Import List NArith ZArith Bool Arith Lia Relations.
From Coq Require Import ZifyN ZifyNat ZifyBool.
From BBS Require Export Store.Basics.
From BBS Require Import Store.Model Store.WfTids Store.P05Cnt.
Import ListNotations.
Open Scope N_scope.

Definition ixt (s s' : state) : Prop := s_index s' = s_index s /\ s_threads s' = s_threads s.
Definition same (s s' : state) : Prop := proj s' = proj s /\ ixt s s'.
Definition fr (c : config) (s s' : state) : Prop := creach c (proj s) (proj s') /\ ixt s s'.

Lemma ixt_refl s : ixt s s. Proof. split; reflexivity. Qed.
Lemma ixt_trans a b d : ixt a b -> ixt b d -> ixt a d.
Proof. unfold ixt; intros [] []; split; congruence. Qed.
Lemma same_refl s : same s s. Proof. split; [reflexivity|apply ixt_refl]. Qed.
Lemma same_trans a b d : same a b -> same b d -> same a d.
Proof. unfold same; intros [] []; split; [congruence|eapply ixt_trans; eauto]. Qed.
Lemma same_fr c s s' : same s s' -> fr c s s'.
Proof. intros [H1 H2]; split; [apply creach_eq; auto|auto]. Qed.
Lemma fr_refl c s : fr c s s. Proof. apply same_fr, same_refl. Qed.
Lemma fr_trans c a b d : fr c a b -> fr c b d -> fr c a d.
Proof. unfold fr; intros [] []; split; [eapply creach_trans; eauto|eapply ixt_trans; eauto]. Qed.

Ltac fields := cbn [s_blocks s_zombies s_free s_next_region s_next_uid s_dev s_old s_cur s_new
                    s_released s_tbr s_attempts s_aidx s_index s_threads s_pushbacks s_negs
                    k_len k_old k_cur k_new k_rel k_tbr k_pb k_negs].

Lemma same_pin s uid : same s (pin s uid).
Proof. unfold same, ixt, proj, pin, upd_blocks; fields. rewrite map_uid_length. auto. Qed.

Lemma same_unpin c s uid : same s (unpin c s uid).
Proof.
  unfold unpin. destruct (find_uid uid (s_blocks s)).
  - unfold same, ixt, proj, upd_blocks; fields. rewrite map_uid_length. auto.
  - destruct (find_uid uid (s_zombies s)); [|apply same_refl].
    destruct (Nat.leb (b_use b) 1).
    + destruct (in_memory c); unfold same, ixt, proj, upd_free, upd_blocks; fields; auto.
    + unfold same, ixt, proj, upd_blocks; fields; auto.
Qed.

Lemma same_write_block s uid off data : same s (write_block s uid off data).
Proof.
  unfold write_block. destruct (find_block s uid); [|apply same_refl].
  unfold same, ixt, proj, upd_dev; fields; auto.
Qed.

Lemma same_upd_dev s d : same s (upd_dev s d).
Proof. unfold same, ixt, proj, upd_dev; fields; auto. Qed.

Lemma same_upd_alloc s a i : same s (upd_alloc s a i).
Proof. unfold same, ixt, proj, upd_alloc; fields; auto. Qed.

Lemma proj_upd_counts s o c n : proj (upd_counts s o c n) = k_counts (proj s) o c n.
Proof. reflexivity. Qed.
Lemma proj_reset_alloc s : proj (reset_alloc s) = proj s.
Proof. reflexivity. Qed.
Lemma ixt_upd_rel s r t : ixt s (upd_rel s r t). Proof. split; reflexivity. Qed.

Lemma proj_pop_front c s : proj (pop_front c s) = k_pop (proj s) /\ ixt s (pop_front c s).
Proof.
  unfold pop_front, k_pop, ixt. cbn [proj k_len].
  destruct (s_blocks s) as [|b rest]; [auto|].
  destruct (Nat.leb (b_use b) 1); [destruct (in_memory c)|]; auto.
Qed.

Lemma new_block_same c s b s' : new_block c s = Some (b, s') -> same s s' /\ s_blocks s' = s_blocks s.
Proof.
  unfold new_block. destruct (in_memory c).
  - intros H; inversion H; subst; clear H. unfold same, ixt, proj; fields; auto.
  - destruct (s_free s); [discriminate|]. intros H; inversion H; subst; clear H.
    unfold same, ixt, proj; fields; auto.
Qed.

Lemma proj_push_back c s s1 : push_back c s = Some s1 ->
  proj s1 = k_push (proj s) /\ ixt s s1 /\ s_old s1 = s_old s /\ s_cur s1 = s_cur s /\ s_new s1 = s_new s.
Proof.
  unfold push_back. destruct (new_block c s) as [[b s']|] eqn:E; [|discriminate].
  apply new_block_same in E. destruct E as [[P [I1 I2]] B].
  intros H; inversion H; subst; clear H. unfold proj in P. inversion P.
  unfold ixt, upd_blocks; fields. split; [|auto].
  unfold proj, k_push; fields. rewrite app_length, B. cbn [length].
  f_equal; first [assumption|lia].
Qed.

Lemma fbs_release_fr c fuel s : fr c s (fbs_release c fuel s).
Proof.
  revert s; induction fuel as [|f IH]; intros s; cbn [fbs_release]; [apply fr_refl|].
  destruct (s_released s <? s_tbr s) eqn:E; [|apply fr_refl].
  eapply fr_trans; [|apply IH].
  destruct (proj_pop_front c s) as [P I].
  assert (A : catom c (proj s) (k_dec (k_pop (proj s)))) by (apply ca_release; cbn; lia).
  split.
  - apply creach_atom.
    match goal with |- catom _ _ ?X => replace X with (k_dec (k_pop (proj s))) end; [exact A|].
    rewrite <- P. unfold k_dec. change (k_old (proj (pop_front c s))) with (s_old (pop_front c s)).
    change (k_cur (proj (pop_front c s))) with (s_cur (pop_front c s)).
    destruct (s_old (pop_front c s)); [destruct (s_cur (pop_front c s))|]; reflexivity.
  - destruct (s_old (pop_front c s)); [destruct (s_cur (pop_front c s))|]; exact I.
Qed.

Lemma fbs_grow_fr c fuel s b s' : fbs_grow c fuel s = (b, s') -> fr c s s'.
Proof.
  revert s; induction fuel as [|f IH]; intros s; cbn [fbs_grow].
  - intros H; inversion H; apply fr_refl.
  - destruct (grow_new c (s_cur s) (s_new s)); [|intros H; inversion H; apply fr_refl].
    destruct (push_back c s) as [s1|] eqn:E; [|intros H; inversion H; apply fr_refl].
    intros H. apply IH in H. eapply fr_trans; [|exact H].
    apply proj_push_back in E. destruct E as (P & I & O1 & C1 & N1). split.
    + apply creach_atom. rewrite proj_upd_counts, P, O1, C1, N1. apply (ca_grow c (proj s)).
    + exact I.
Qed.

Lemma fbs_rotate_fr c fuel size s b s' : fbs_rotate c fuel size s = (b, s') -> fr c s s'.
Proof.
  revert s; induction fuel as [|f IH]; intros s; cbn [fbs_rotate].
  - intros H; inversion H; apply fr_refl.
  - destruct (has_space c s (s_old s + s_cur s) size); [intros H; inversion H; apply fr_refl|].
    destruct (Nat.ltb (desired_new c) (s_new s)) eqn:D.
    + intros H. apply IH in H. eapply fr_trans; [|exact H]. split.
      * apply creach_atom. rewrite proj_reset_alloc, proj_upd_counts.
        apply (ca_shift c (proj s)). cbn. apply Nat.ltb_lt in D. lia.
      * split; reflexivity.
    + destruct (push_back c s) as [s1|] eqn:E; [|intros H; inversion H; apply fr_refl].
      intros H. apply IH in H. eapply fr_trans; [|exact H]. clear H.
      apply proj_push_back in E. destruct E as (P & I & O1 & C1 & N1).
      destruct (grow_cur c (s_cur s1)).
      * split.
        -- apply creach_atom. rewrite proj_reset_alloc, proj_upd_counts, P, O1, C1, N1. apply (ca_rot_cur c (proj s)).
        -- exact I.
      * cbn [s_old upd_counts].
        destruct (Nat.ltb (c_old c) (S (s_old s1))) eqn:L.
        -- rewrite O1, C1, N1. set (s3 := upd_counts s1 (S (s_old s)) (s_cur s) (s_new s)).
           destruct (proj_pop_front c s3) as [PP IP].
           split.
           ++ apply creach_atom. rewrite proj_reset_alloc.
              match goal with |- catom _ _ ?X =>
                replace X with (let k4 := k_pop (k_counts (k_push (proj s)) (S (k_old (proj s))) (k_cur (proj s)) (k_new (proj s))) in
                                let k5 := k_counts k4 (pred (k_old k4)) (k_cur k4) (k_new k4) in
                                k_settbr k5 (N.max (k_tbr k5) (k_rel k5))) end.
              { apply (ca_rot_pop c (proj s)). cbn. apply Nat.ltb_lt in L. lia. }
              cbv zeta. change (k_old (proj s)) with (s_old s). change (k_cur (proj s)) with (s_cur s).
              change (k_new (proj s)) with (s_new s). unfold s3 in PP. rewrite proj_upd_counts, P in PP.
              rewrite <- PP. reflexivity.
           ++ eapply ixt_trans; [exact I|exact IP].
        -- split.
           ++ apply creach_atom. rewrite proj_reset_alloc, proj_upd_counts, P, O1, C1, N1.
              apply (ca_rot_old c (proj s)). cbn. apply Nat.ltb_ge in L. lia.
           ++ exact I.
Qed.

Lemma fbs_pick_spec c fuel size s idx s' :
  fbs_pick c fuel size s = Some (idx, s') ->
  same s s' /\ (s_old s + s_cur s <= idx)%nat /\ (idx < length (s_blocks s))%nat /\ s_blocks s' = s_blocks s.
Proof.
  revert s; induction fuel as [|f IH]; intros s; cbn [fbs_pick]; [discriminate|].
  destruct (s_attempts s) as [|a] eqn:EA.
  - intros H. apply IH in H. destruct H as (S1 & H2 & H3 & H4).
    split; [eapply same_trans; [apply same_upd_alloc|exact S1]|]. auto.
  - destruct (s_aidx s) as [i|] eqn:EI.
    + destruct (has_space c s (s_old s + s_cur s + i) size) eqn:HS.
      * intros H; inversion H; subst; clear H.
        split; [apply same_upd_alloc|]. split; [lia|]. split; [|reflexivity].
        unfold has_space in HS. destruct (nth_error (s_blocks s) (s_old s + s_cur s + i)) eqn:N; [|discriminate].
        apply nth_error_Some. congruence.
      * intros H. apply IH in H. destruct H as (S1 & H2 & H3 & H4).
        split; [eapply same_trans; [apply same_upd_alloc|exact S1]|]. auto.
    + intros H. apply IH in H. destruct H as (S1 & H2 & H3 & H4).
      split; [eapply same_trans; [apply same_upd_alloc|exact S1]|]. auto.
Qed.

Lemma find_block_with_space_spec c s size r s' :
  find_block_with_space c s size = (r, s') ->
  fr c s s' /\
  match r with
  | Ok idx => (s_old s' + s_cur s' <= idx)%nat /\ (idx < length (s_blocks s'))%nat
  | Err e => e <> cNotFound /\ e <> cOK
  end.
Proof.
  unfold find_block_with_space.
  destruct (c_bs c <? size).
  { intros H; inversion H; subst. split; [apply fr_refl|split; discriminate]. }
  pose proof (fbs_release_fr c (S (length (s_blocks s))) s) as F1.
  destruct (fbs_grow c (S (c_cur c + c_new c)) (fbs_release c (S (length (s_blocks s))) s)) as [b2 s2] eqn:E2.
  pose proof (fbs_grow_fr _ _ _ _ _ E2) as F2.
  destruct b2.
  2:{ intros H; inversion H; subst. split; [eapply fr_trans; eauto|split; discriminate]. }
  destruct (fbs_rotate c (fuel_of s2) size s2) as [b3 s3] eqn:E3.
  pose proof (fbs_rotate_fr _ _ _ _ _ _ E3) as F3.
  destruct b3.
  2:{ intros H; inversion H; subst. split; [eapply fr_trans; [eauto|eapply fr_trans; eauto]|split; discriminate]. }
  destruct (fbs_pick c (S (S (s_new s3)) * 2) size s3) as [[idx s4]|] eqn:E4.
  - apply fbs_pick_spec in E4. destruct E4 as (S4 & L1 & L2 & B4).
    intros H; inversion H; subst.
    split; [eapply fr_trans; [eauto|eapply fr_trans; [eauto|eapply fr_trans; [eauto|apply same_fr; auto]]]|].
    destruct S4 as [P _].
    assert (s_old s' = s_old s3) by (change (k_old (proj s') = k_old (proj s3)); rewrite P; reflexivity).
    assert (s_cur s' = s_cur s3) by (change (k_cur (proj s') = k_cur (proj s3)); rewrite P; reflexivity).
    rewrite B4. lia.
  - intros H; inversion H; subst. split; [eapply fr_trans; [eauto|eapply fr_trans; eauto]|split; discriminate].
Qed.

Lemma ocn_put_spec c s size r s' :
  ocn_put c s size = (r, s') ->
  fr c s s' /\
  match r with
  | Ok wr => s_released s' + N.of_nat (s_old s') <= wr_abs wr /\
             wr_abs wr < s_released s' + N.of_nat (length (s_blocks s'))
  | Err e => e <> cNotFound /\ e <> cOK
  end.
Proof.
  unfold ocn_put. destruct (find_block_with_space c s size) as [r0 s0] eqn:E.
  apply find_block_with_space_spec in E. destruct E as (F & HR).
  destruct r0 as [idx|e]; [|intros H; inversion H; subst; exact (conj F HR)].
  destruct (nth_error (s_blocks s0) idx) as [b|] eqn:N.
  - intros H; inversion H; subst; clear H. destruct HR as [L1 L2].
    assert (SM : same s0 (upd_blocks s0 (map_uid (fun x => set_use (set_cursor x (b_cursor x + size)) (S (b_use x))) (b_uid b) (s_blocks s0)) (s_zombies s0))).
    { unfold same, ixt, proj, upd_blocks; fields. rewrite map_uid_length. auto. }
    split; [eapply fr_trans; [exact F|apply same_fr; exact SM]|].
    cbn [wr_abs]. unfold upd_blocks; fields. rewrite map_uid_length. lia.
  - intros H; inversion H; subst; clear H. split; [exact F|split; discriminate].
Qed.

Lemma finalize_spec c s wr ok r s' :
  finalize c s wr ok = (r, s') ->
  same s s' /\
  match r with
  | Ok l => l_abs l = wr_abs wr /\ s_tbr s' <= wr_abs wr /\ ok = true
  | Err e => e <> cOK /\ e <> cNotFound
  end.
Proof.
  unfold finalize. pose proof (same_unpin c s (wr_uid wr)) as S.
  destruct ok; cbn [negb]; [|intros H; inversion H; subst; split; [exact S|split; discriminate]].
  destruct (wr_abs wr <? s_tbr (unpin c s (wr_uid wr))) eqn:E; intros H; inversion H; subst; (split; [exact S|]).
  - split; discriminate.
  - cbn [l_abs]. split; [reflexivity|split; [lia|reflexivity]].
Qed.

Lemma fin_check_spec s wr :
  (forall l, fin_check s wr = Ok l -> l_abs l = wr_abs wr /\ s_tbr s <= wr_abs wr).
Proof.
  unfold fin_check. destruct (wr_abs wr <? s_tbr s) eqn:E; intros l H; inversion H; subst; cbn [l_abs].
  split; [reflexivity|lia].
Qed.

Lemma read_validated_spec w s o uid l v bytes s' :
  read_validated w s o uid l = (v, bytes, s') ->
  fr (w_cfg w) s s' /\ (v = true -> s' = s).
Proof.
  unfold read_validated.
  destruct (c_validate (w_cfg w) && negb (bytes_eqb (read_block s uid (l_off l) (l_size l)) (content w o))).
  - intros H; inversion H; subst; clear H. split; [|discriminate].
    split; [|split; reflexivity]. apply creach_atom.
    match goal with |- catom _ _ ?X => replace X with (k_bump (proj s) (l_abs l + 1)) by reflexivity end. apply ca_bump.
  - intros H; inversion H; subst; clear H. split; [apply fr_refl|auto].
Qed.

Lemma read_validated_pb w s o uid l v bytes s' :
  read_validated w s o uid l = (v, bytes, s') -> s_pushbacks s' = s_pushbacks s /\ s_dev s' = s_dev s.
Proof.
  unfold read_validated.
  destruct (c_validate (w_cfg w) && negb (bytes_eqb (read_block s uid (l_off l) (l_size l)) (content w o)));
    intros H; inversion H; subst; split; reflexivity.
Qed.

Lemma sync_from_canonical_some s o k cl s1 :
  sync_from_canonical s o k = Some (cl, s1) ->
  index_get s (canonical_key o) = Some cl /\ needs_refresh s cl = false /\ s1 = index_put s k cl.
Proof.
  unfold sync_from_canonical. destruct (index_get s (canonical_key o)) as [cl'|]; [|discriminate].
  destruct (needs_refresh s cl') eqn:NC; [discriminate|]. intros H; inversion H; subst. auto.
Qed.

Lemma same_index_put s k l : proj (index_put s k l) = proj s /\ s_threads (index_put s k l) = s_threads s
                              /\ s_index (index_put s k l) = (k, l) :: s_index s.
Proof. unfold index_put, upd_index, proj; fields. auto. Qed.

Lemma index_put_all_spec ks : forall s l,
  proj (index_put_all s ks l) = proj s /\ s_threads (index_put_all s ks l) = s_threads s /\
  incl (s_index s) (s_index (index_put_all s ks l)) /\
  (forall k, In k ks -> In (k, l) (s_index (index_put_all s ks l))).
Proof.
  induction ks as [|k t IH]; intros s l; cbn [index_put_all].
  - repeat split; auto. apply incl_refl. intros k [].
  - destruct (IH (index_put s k l) l) as (P & T & I & A).
    destruct (same_index_put s k l) as (P0 & T0 & I0).
    repeat split; try congruence.
    + intros x Hx. apply I. rewrite I0. right; exact Hx.
    + intros k' [->|Hk]; [|auto]. apply I. rewrite I0. left; reflexivity.
Qed.
