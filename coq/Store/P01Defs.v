(** C01 proofs: the monitor applied to the model's own observations. *)
From Coq Require Import List NArith ZArith Bool Arith Lia.
From BBS Require Import Common.Sx Store.Model Run.RStore Run.R01.
Import ListNotations.

Definition m01_init : m01 :=
  {| m_puts := []; m_gets := []; m_gfcs := []; m_uploaded := []; m_corrupted := false; m_viol := [] |}.

Definition model_obs (w : world) (es : list op) : list sx :=
  map (fun '(e, (s0, s1, o)) => enc_obs (w_cfg w) e s0 s1 o)
      (combine es (run_states w (init_state (w_cfg w)) es)).

Definition mon01_model (w : world) (es : list op) : list Z :=
  m_viol (mon01_run w m01_init es (model_obs w es)).
