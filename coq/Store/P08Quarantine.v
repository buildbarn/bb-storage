(** C08 — detected corruption is quarantined: theorems about the store model
    (all worlds, all states / all schedules as stated). *)
From Coq Require Import List NArith ZArith Bool Arith Lia ZifyN ZifyNat ZifyBool.
From BBS Require Import Store.Model Store.Basics Store.P08Frame Store.P08Step.
Import ListNotations.
Open Scope N_scope.

(** state reached by a schedule *)
Fixpoint exec (w : world) (s : state) (es : list op) : state :=
  match es with
  | [] => s
  | e :: t => exec w (fst (step w s e)) t
  end.

Lemma exec_run w es : forall s, fst (run w s es) = exec w s es.
Proof.
  induction es as [|e t IH]; intros s; cbn [run exec]; [reflexivity|].
  destruct (step w s e) as [s1 o] eqn:E. specialize (IH s1). destruct (run w s1 t) as [s2 os]. exact IH.
Qed.

Lemma exec_app w es1 es2 s : exec w s (es1 ++ es2) = exec w (exec w s es1) es2.
Proof. revert s. induction es1 as [|e t IH]; intros s; cbn; [reflexivity|apply IH]. Qed.

(** the detection proper: the verdict is counted and the boundary is raised above the block *)
Lemma detect_read_validated w s o u l bytes s' :
  read_validated w s o u l = (false, bytes, s') ->
  bytes <> content w o /\ s_negs s' = S (s_negs s) /\
  s_tbr s' = N.max (s_tbr s) (l_abs l + 1) /\ l_abs l + 1 <= s_tbr s' /\ s_tbr s <= s_tbr s'.
Proof.
  intros H. pose proof (read_validated_false _ _ _ _ _ _ _ H) as (_ & _ & Hne & _).
  apply read_validated_false_dfr in H as []. repeat split; try assumption; rewrite df_tbr; [apply N.le_max_r|apply N.le_max_l].
Qed.

(** no false alarm: a negative verdict means the bytes read differ from the content *)
Lemma read_validated_sound w s o u l :
  read_block s u (l_off l) (l_size l) = content w o -> fst (fst (read_validated w s o u l)) = true.
Proof.
  intros H. unfold read_validated. rewrite H.
  replace (bytes_eqb (content w o) (content w o)) with true by (symmetry; apply bytes_eqb_eq; reflexivity).
  rewrite andb_false_r. reflexivity.
Qed.

(** every step: whenever the verdict counter grows, the operation's output
    carries INTERNAL (so it is never [Done 0]); the boundary never decreases *)
Lemma detect_step w s e s' out : step w s e = (s', out) ->
  (s_negs s' = s_negs s \/ (s_negs s' = S (s_negs s) /\ out_internal out)) /\ s_tbr s <= s_tbr s'.
Proof.
  intros H. apply step_sfr in H as [[]|[[] Ho]]; (split; [|assumption]); [left|right; split]; assumption.
Qed.

Lemma out_internal_not_ok out : out_internal out -> forall b, out <> Done cOK b.
Proof. destruct out; cbn; intros H b E; inversion E; subst; discriminate. Qed.

Lemma get_consume_detects w s o uid l r fk code bytes s1 :
  fst (fst (read_validated w s o uid l)) = false -> get_consume w s o uid l r fk = (code, bytes, s1) ->
  code = cInternal /\ bytes = [] /\ s_negs s1 = S (s_negs s) /\ l_abs l + 1 <= s_tbr s1.
Proof.
  intros Hv E. apply get_consume_cases in E as [[E _]|(b & s2 & R & X & -> & ->)]; [congruence|].
  apply read_validated_false_dfr in R as []. destruct X.
  repeat split; try congruence. rewrite xf_tbr, df_tbr. apply N.le_max_r.
Qed.

(** consuming a reader whose bytes fail validation *)
Lemma detect_get_consume w s tid o uid l r fk s' out :
  thr_get (s_threads s) tid = Some (TGet o uid l r fk) ->
  fst (fst (read_validated w s o uid l)) = false ->
  step w s (OGetConsume tid) = (s', out) ->
  out = Done cInternal [] /\ s_negs s' = S (s_negs s) /\ l_abs l + 1 <= s_tbr s'.
Proof.
  intros Ht Hv. unfold step. cbn [may_take_refresh_lock is_corrupt andb]. rewrite Ht.
  destruct (get_consume w s o uid l r fk) as [[code bytes] s1] eqn:E. iinv.
  destruct (get_consume_detects _ _ _ _ _ _ _ _ _ _ Hv E) as (-> & -> & Hn & Hb). cbn. auto.
Qed.

(** hierarchical composite read: the parent's bytes fail validation *)
Lemma detect_slice_hier w s tid o uid l r fk slices s' out :
  thr_get (s_threads s) tid = Some (TGet o uid l r fk) ->
  fst (fst (read_validated w s o uid l)) = false ->
  step w s (OGfcSlice tid slices) = (s', out) ->
  out = Done cInternal [] /\ s_negs s' = S (s_negs s) /\ l_abs l + 1 <= s_tbr s'.
Proof.
  intros Ht Hv. unfold step. cbn [may_take_refresh_lock is_corrupt andb]. rewrite Ht.
  destruct (get_consume w s o uid l r fk) as [[code bytes] s1] eqn:E. iinv.
  destruct (get_consume_detects _ _ _ _ _ _ _ _ _ _ Hv E) as (-> & -> & Hn & Hb). cbn. auto.
Qed.

(** flat composite read: the parent's bytes fail validation in the slicer *)
Lemma detect_slice_flat w s tid p i uid pl r pk slices s' out :
  thr_get (s_threads s) tid = Some (TGfc p i uid pl r pk) ->
  fst (fst (read_validated w s p uid pl)) = false ->
  step w s (OGfcSlice tid slices) = (s', out) ->
  out = Done cInternal [] /\ s_negs s' = S (s_negs s) /\ l_abs pl + 1 <= s_tbr s' /\ s_index s' = s_index s.
Proof.
  intros Ht Hv. unfold step. cbn [may_take_refresh_lock is_corrupt andb]. rewrite Ht.
  destruct (read_validated w s p uid pl) as [[valid bytes] s1] eqn:R. cbn in Hv; subst valid. cbn [negb].
  apply read_validated_false_dfr in R as [].
  match goal with |- (thr_rm ?X tid, _) = _ -> _ => assert (xfr s1 X) as []; [|generalize dependent X; intros sX] end.
  { destruct r as [wr|]; [destruct (lockstep (w_cfg w))|]; try apply unpin_xfr.
    rewrite finalize_state. eapply xfr_trans; apply unpin_xfr. }
  intros; inv H. cbn [thr_rm upd_threads s_negs s_tbr s_index].
  split; [reflexivity|]. split; [congruence|]. split; [|congruence]. rewrite xf_tbr, df_tbr. apply N.le_max_r.
Qed.

(** FindMissing: a verdict counted during a refresh fails the call with INTERNAL *)
Lemma detect_find_missing w s ds s' out :
  step w s (OFindMissing ds) = (s', out) -> s_negs s' <> s_negs s ->
  out = Missing cInternal [] /\ s_negs s' = S (s_negs s).
Proof.
  unfold step. cbn [may_take_refresh_lock is_corrupt andb].
  destruct (refresh_lock_held s); [iinv; congruence|].
  destruct (find_missing w s ds) as [[m|e] s1] eqn:E; apply find_missing_cases in E; iinv.
  - destruct E as [[]|[[] E']]; [intros Hn; exfalso; apply Hn; assumption|discriminate].
  - destruct E as [[]|[[] E']]; [intros Hn; exfalso; apply Hn; assumption|]. inv E'. intros _. split; [reflexivity|assumption].
Qed.

Lemma exec_tbr_mono w es : forall s, s_tbr s <= s_tbr (exec w s es).
Proof.
  induction es as [|e t IH]; intros s; cbn [exec]; [apply N.le_refl|].
  destruct (step w s e) as [s1 o] eqn:E. apply detect_step in E as [_ E]. cbn [fst].
  exact (N.le_trans _ _ _ E (IH s1)).
Qed.

Lemma open_with_refresh_ok w s o l fk t s' : open_with_refresh w s o l fk = (Ok t, s') ->
  exists uid r fk', t = TGet o uid l r fk' /\ (fk' = fk \/ fk' = []) /\ s_threads s' = s_threads s.
Proof.
  unfold open_with_refresh. destruct (block_of_loc s l) as [b|]; [|discriminate].
  destruct (needs_refresh s l).
  2:{ iinv. eexists _, _, _. split; [reflexivity|split; [auto|reflexivity]]. }
  destruct (ocn_put (w_cfg w) (pin s (b_uid b)) (l_size l)) as [[wr|e] s2] eqn:E; [|discriminate].
  apply ocn_put_afr in E as [_ Hthr _ _ _ _].
  destruct (lockstep (w_cfg w)).
  { iinv. eexists _, _, _. split; [reflexivity|split; [auto|exact Hthr]]. }
  destruct (finalize _ _ wr true) as [[nl|e] s4] eqn:F; [|discriminate].
  apply finalize_xfr in F as []. iinv. eexists _, _, _. split; [reflexivity|split; [auto|]].
  rewrite (if_threads _ _ (index_put_all_ifr s4 fk nl)), xf_threads.
  rewrite (P08Frame.xf_threads _ _ (write_block_xfr _ _ _ _)). exact Hthr.
Qed.

(** a reader is only ever opened on a location that a lookup key of the
    request (or, hierarchical refresh, the canonical key) resolves to *)
Lemma get_open_ok w s o i t s' : get_open w s o i = (Ok t, s') ->
  exists uid l r fk, t = TGet o uid l r fk /\
    (exists k l0, In k (lookup_keys w o i) /\ index_get s k = Some l0) /\
    (exists k, index_get s k = Some l) /\ s_threads s' = s_threads s.
Proof.
  intros H. apply get_open_via in H.
  destruct (least_specific s (lookup_keys w o i)) as [[k l]|] eqn:L; [|destruct H; discriminate].
  apply least_specific_some in L as [Lk Lg]. destruct H as (s1 & l1 & fk & H & Hs1 & Hl1 & _).
  apply open_with_refresh_ok in H as (uid & r & fk' & -> & _ & Ht).
  exists uid, l1, r, fk'. split; [reflexivity|split; [eauto|split; [assumption|]]].
  destruct Hs1 as [->|[cl ->]]; exact Ht.
Qed.

Lemma open_with_refresh_err w s o l fk e s' : open_with_refresh w s o l fk = (Err e, s') ->
  e <> cNotFound /\ e <> 0%Z.
Proof.
  unfold open_with_refresh. destruct (block_of_loc s l) as [b|]; [|iinv; split; discriminate].
  destruct (needs_refresh s l); [|discriminate].
  destruct (ocn_put (w_cfg w) (pin s (b_uid b)) (l_size l)) as [[wr|e1] s2] eqn:E.
  - destruct (lockstep (w_cfg w)); [discriminate|].
    destruct (finalize _ _ wr true) as [[nl|e1] s4] eqn:F; [discriminate|].
    apply finalize_err_code in F. iinv. destruct F as [-> | ->]; split; discriminate.
  - apply ocn_put_err_code in E. iinv. destruct E as [-> | [-> | [-> | ->]]]; split; discriminate.
Qed.

Lemma get_open_err w s o i e s' : get_open w s o i = (Err e, s') ->
  e <> 0%Z /\ (e = cNotFound -> least_specific s (lookup_keys w o i) = None).
Proof.
  intros H. apply get_open_via in H. destruct (least_specific s (lookup_keys w o i)) as [[k l]|].
  - destruct H as (s1 & l1 & fk & H & _). apply open_with_refresh_err in H as [H1 H2].
    split; [assumption|]. intros ->. contradiction.
  - destruct H as [H _]. inv H. split; [discriminate|reflexivity].
Qed.

(** OGetOpen parks a reader only on a location outside the quarantine (as of invocation) *)
Lemma get_open_parks_outside_quarantine w s tid o j s' :
  step w s (OGetOpen tid o j) = (s', Parked) ->
  exists uid l r fk, thr_get (s_threads s') tid = Some (TGet o uid l r fk) /\ s_tbr s <= l_abs l /\
    exists k l0, In k (lookup_keys w o j) /\ index_get s k = Some l0 /\ s_tbr s <= l_abs l0.
Proof.
  unfold step. cbn [may_take_refresh_lock is_corrupt andb].
  destruct (thr_get (s_threads s) tid); [discriminate|].
  destruct (get_open w s o j) as [[t|e] s1] eqn:E; [|discriminate].
  apply get_open_ok in E as (uid & l & r & fk & -> & (k & l0 & Hk & Hl0) & [k' Hk'] & _).
  iinv. exists uid, l, r, fk. split; [rewrite thr_get_set, Nat.eqb_refl; reflexivity|].
  split; [eapply index_get_quarantine; eassumption|].
  exists k, l0. repeat split; try assumption. eapply index_get_quarantine; eassumption.
Qed.

(** objects all of whose stored locations (under the lookup keys of the
    request) lie below the boundary: NOT_FOUND *)
Lemma least_specific_all_none s ks : (forall k, In k ks -> index_get s k = None) -> least_specific s ks = None.
Proof.
  induction ks as [|k t IH]; intros H; cbn [least_specific]; [reflexivity|].
  rewrite (H k (or_introl eq_refl)). apply IH. intros k' Hk'. apply H. right. assumption.
Qed.

Lemma quarantined_lookup_none w s o j :
  (forall k l, In k (lookup_keys w o j) -> In (k, l) (s_index s) -> l_abs l < s_tbr s) ->
  least_specific s (lookup_keys w o j) = None.
Proof.
  intros H. apply least_specific_all_none. intros k Hk.
  destruct (index_get s k) as [l|] eqn:E; [|reflexivity].
  pose proof (index_get_quarantine _ _ _ E). apply index_get_some in E as [E _].
  specialize (H k l Hk E). lia.
Qed.

Lemma quarantined_get_not_found w s tid o j :
  thr_get (s_threads s) tid = None ->
  (forall k l, In k (lookup_keys w o j) -> In (k, l) (s_index s) -> l_abs l < s_tbr s) ->
  step w s (OGetOpen tid o j) = (s, Done cNotFound []).
Proof.
  intros Ht H. unfold step. cbn [may_take_refresh_lock is_corrupt andb]. rewrite Ht.
  unfold get_open. rewrite (quarantined_lookup_none w s o j H). reflexivity.
Qed.

Lemma fm_phase2_missing_mono w : forall todo s missing m s',
  fm_phase2 w s todo missing = (Ok m, s') -> incl missing m.
Proof.
  induction todo as [|[pos [o i]] t IH]; intros s missing m s'; cbn [fm_phase2].
  - iinv. apply incl_refl.
  - destruct (fm_refresh_one w s o i) as [[[]|e] s1]; [| |discriminate]; intros H; apply IH in H.
    + assumption.
    + intros x Hx. apply H, in_or_app. left. assumption.
Qed.

(** a digest reported present resolved, at invocation, under one of its lookup keys *)
Lemma find_missing_present w s ds m s' pos o j :
  find_missing w s ds = (Ok m, s') -> nth_error ds pos = Some (o, j) -> ~ In pos m ->
  exists k l, In k (lookup_keys w o j) /\ index_get s k = Some l.
Proof.
  unfold find_missing. intros H Hn Hm. apply fm_phase2_missing_mono in H.
  destruct (least_specific s (lookup_keys w o j)) as [[k l]|] eqn:L.
  { apply least_specific_some in L as []. eauto. }
  exfalso. apply Hm, H. apply in_map_iff. exists (pos, (o, j)). split; [reflexivity|].
  apply filter_In. split; [apply (enumerate_nth ds 0 pos), Hn|]. rewrite L. reflexivity.
Qed.

Lemma fm_refresh_one_err w s o i e s' : fm_refresh_one w s o i = (Err e, s') -> e <> 0%Z.
Proof.
  unfold fm_refresh_one.
  destruct (least_specific s (lookup_keys w o i)) as [[k l]|]; [|discriminate].
  destruct (negb (needs_refresh s l)); [discriminate|].
  match goal with |- context [match ?d with Some s1 => (Ok true, s1) | None => _ end] => destruct d as [s1|] end;
    [discriminate|].
  destruct (block_of_loc s l) as [b|]; [|iinv; discriminate].
  destruct (ocn_put (w_cfg w) (pin s (b_uid b)) (l_size l)) as [[wr|e1] s1] eqn:E.
  2:{ iinv. apply ocn_put_err_code in E. intros ->. intuition discriminate. }
  destruct (read_validated w s1 o (b_uid b) l) as [[valid bytes] s2].
  destruct (finalize _ _ wr valid) as [[nl|e1] s3] eqn:F; [discriminate|].
  apply finalize_err_code in F. iinv. destruct valid; [|discriminate]. intros ->. intuition discriminate.
Qed.

Lemma fm_phase2_err w : forall todo s missing e s', fm_phase2 w s todo missing = (Err e, s') -> e <> 0%Z.
Proof.
  induction todo as [|[pos [o i]] t IH]; intros s missing e s'; cbn [fm_phase2]; [discriminate|].
  destruct (fm_refresh_one w s o i) as [[[]|e1] s1] eqn:E; try apply IH.
  iinv. eapply fm_refresh_one_err, E.
Qed.

Lemma find_missing_present_step w s ds m s' pos o j :
  step w s (OFindMissing ds) = (s', Missing cOK m) -> nth_error ds pos = Some (o, j) -> ~ In pos m ->
  exists k l, In k (lookup_keys w o j) /\ index_get s k = Some l /\ s_tbr s <= l_abs l.
Proof.
  unfold step. cbn [may_take_refresh_lock is_corrupt andb].
  destruct (refresh_lock_held s); [discriminate|].
  destruct (find_missing w s ds) as [[m0|e] s1] eqn:E; iinv.
  2:{ unfold find_missing in E. apply fm_phase2_err in E. exfalso; apply E; reflexivity. }
  intros Hn Hm. rewrite sort_nat_in in Hm.
  destruct (find_missing_present _ _ _ _ _ _ _ _ E Hn Hm) as (k & l & Hk & Hl).
  exists k, l. repeat split; try assumption. eapply index_get_quarantine; eassumption.
Qed.

(** on traces: once the boundary has been raised to B+1 (e.g. by a detection
    in block B), no operation invoked later resolves a location in block <= B *)
Lemma quarantine_hides_get w s0 es1 es2 B tid o j s' :
  B + 1 <= s_tbr (exec w s0 es1) ->
  step w (exec w s0 (es1 ++ es2)) (OGetOpen tid o j) = (s', Parked) ->
  exists uid l r fk, thr_get (s_threads s') tid = Some (TGet o uid l r fk) /\ B < l_abs l.
Proof.
  intros HB H. rewrite exec_app in H.
  apply get_open_parks_outside_quarantine in H as (uid & l & r & fk & Ht & Hl & _).
  exists uid, l, r, fk. split; [assumption|].
  pose proof (exec_tbr_mono w es2 (exec w s0 es1)). lia.
Qed.

Lemma quarantine_hides_find_missing w s0 es1 es2 B ds m s' pos o j :
  B + 1 <= s_tbr (exec w s0 es1) ->
  step w (exec w s0 (es1 ++ es2)) (OFindMissing ds) = (s', Missing cOK m) ->
  nth_error ds pos = Some (o, j) -> ~ In pos m ->
  exists k l, In k (lookup_keys w o j) /\ index_get (exec w s0 (es1 ++ es2)) k = Some l /\ B < l_abs l.
Proof.
  intros HB H Hn Hm.
  destruct (find_missing_present_step _ _ _ _ _ _ _ _ H Hn Hm) as (k & l & Hk & Hl & Hq).
  exists k, l. repeat split; try assumption. rewrite exec_app in Hq.
  pose proof (exec_tbr_mono w es2 (exec w s0 es1)). lia.
Qed.

Definition above (B : N) (l : loc) : bool := B + 1 <=? l_abs l.
Definition fopt (B : N) (b : option loc) : option loc :=
  match b with Some x => if above B x then Some x else None | None => None end.

Lemma newest_filter_above B cands : forall best l0,
  newest cands best = Some l0 -> B < l_abs l0 ->
  newest (filter (above B) cands) (fopt B best) = Some l0.
Proof.
  induction cands as [|c t IH]; intros best l0; cbn [newest filter].
  - intros -> H. cbn. unfold above. destruct (B + 1 <=? l_abs l0) eqn:E; [reflexivity|lia].
  - intros H HB. specialize (IH _ _ H HB).
    destruct (above B c) eqn:Ec; cbn [newest].
    + replace (match fopt B best with None => Some c | Some b => if loc_older b c then Some c else Some b end)
        with (fopt B (match best with None => Some c | Some b => if loc_older b c then Some c else Some b end)); [exact IH|].
      destruct best as [b|]; cbn [fopt]; [|rewrite Ec; reflexivity].
      destruct (above B b) eqn:Eb.
      * destruct (loc_older b c); cbn [fopt]; [rewrite Ec|rewrite Eb]; reflexivity.
      * assert (loc_older b c = true) as -> by (unfold loc_older, above in *; lia).
        cbn [fopt]. rewrite Ec. reflexivity.
    + replace (fopt B best)
        with (fopt B (match best with None => Some c | Some b => if loc_older b c then Some c else Some b end)); [exact IH|].
      destruct best as [b|]; cbn [fopt]; [|rewrite Ec; reflexivity].
      destruct (loc_older b c) eqn:Eo; cbn [fopt]; [|reflexivity].
      rewrite Ec. assert (above B b = false) as -> by (unfold loc_older, above in *; lia). reflexivity.
Qed.

Lemma filter_filter {T} (f g : T -> bool) l : filter f (filter g l) = filter (fun x => g x && f x) l.
Proof.
  induction l as [|x t IH]; cbn; [reflexivity|].
  destruct (g x); cbn; [destruct (f x); cbn; congruence|assumption].
Qed.
Lemma filter_map_snd {K} (p : loc -> bool) (l : list (K * loc)) :
  filter p (map snd l) = map snd (filter (fun e => p (snd e)) l).
Proof. induction l as [|x t IH]; cbn; [reflexivity|]. destruct (p (snd x)); cbn; congruence. Qed.

(** the detection proper leaves every key that resolved into a newer block alone *)
Lemma newer_unaffected_dfr l s s' : dfr l s s' ->
  forall k l0, index_get s k = Some l0 -> l_abs l < l_abs l0 -> index_get s' k = Some l0.
Proof.
  intros [] k l0 Hg Hn. unfold index_get in *. rewrite df_index.
  apply (newest_filter_above (l_abs l)) in Hg; [|assumption]. cbn [fopt] in Hg.
  rewrite filter_map_snd, filter_filter in Hg. rewrite <- Hg. f_equal. f_equal.
  apply filter_ext. intros [k' x]. cbn. unfold loc_valid, above. rewrite df_tbr, df_rel, df_blocks.
  destruct (key_eqb k' k); cbn; [|reflexivity]. lia.
Qed.

Lemma newer_unaffected_read_validated w s o u l bytes s' :
  read_validated w s o u l = (false, bytes, s') ->
  forall k l0, index_get s k = Some l0 -> l_abs l < l_abs l0 -> index_get s' k = Some l0.
Proof. intros H. eapply newer_unaffected_dfr, read_validated_false_dfr, H. Qed.

(** the whole reading step in which the detection happens *)
Lemma newer_unaffected_consume w s o uid l r fk code bytes s1 :
  get_consume w s o uid l r fk = (code, bytes, s1) -> s_negs s1 <> s_negs s ->
  forall k l0, index_get s k = Some l0 -> l_abs l < l_abs l0 -> index_get s1 k = Some l0.
Proof.
  intros E. apply get_consume_cases in E as [[_ [_ Hng _ _ _]]|(b & s2 & R & X & -> & ->)]; [intros Hn; destruct (Hn Hng)|].
  intros _ k l0 Hg Hn. rewrite (index_get_xfr _ _ k X). eapply newer_unaffected_read_validated; eassumption.
Qed.

Lemma newer_unaffected_get_consume w s tid o uid l r fk s' out :
  thr_get (s_threads s) tid = Some (TGet o uid l r fk) ->
  step w s (OGetConsume tid) = (s', out) -> s_negs s' <> s_negs s ->
  forall k l0, index_get s k = Some l0 -> l_abs l < l_abs l0 -> index_get s' k = Some l0.
Proof.
  intros Ht. unfold step. cbn [may_take_refresh_lock is_corrupt andb]. rewrite Ht.
  destruct (get_consume w s o uid l r fk) as [[code bytes] s1] eqn:E. iinv.
  exact (newer_unaffected_consume _ _ _ _ _ _ _ _ _ _ E).
Qed.

Lemma newer_unaffected_slice_hier w s tid o uid l r fk slices s' out :
  thr_get (s_threads s) tid = Some (TGet o uid l r fk) ->
  step w s (OGfcSlice tid slices) = (s', out) -> s_negs s' <> s_negs s ->
  forall k l0, index_get s k = Some l0 -> l_abs l < l_abs l0 -> index_get s' k = Some l0.
Proof.
  intros Ht. unfold step. cbn [may_take_refresh_lock is_corrupt andb]. rewrite Ht.
  destruct (get_consume w s o uid l r fk) as [[code bytes] s1] eqn:E. iinv.
  exact (newer_unaffected_consume _ _ _ _ _ _ _ _ _ _ E).
Qed.

Lemma inflight_upload_fails w s tid o i wr acc err s' out :
  thr_get (s_threads s) tid = Some (TPut o i wr acc) -> wr_abs wr < s_tbr s ->
  step w s (OPutEnd tid err) = (s', out) ->
  (exists code, out = Done code [] /\ code <> 0%Z) /\ s_index s' = s_index s.
Proof.
  intros Ht Hq. unfold step. cbn [may_take_refresh_lock is_corrupt andb]. rewrite Ht.
  destruct (finalize (w_cfg w) s wr _) as [[l|e] s1] eqn:F.
  { eapply finalize_quarantined in F as (e & E & _); [discriminate|assumption]. }
  pose proof (finalize_quarantined _ _ _ _ _ _ F Hq) as (e' & E & Hne). inv E.
  apply finalize_xfr in F as []. iinv. split; [|cbn; assumption].
  eexists. split; [reflexivity|]. destruct (Z.eqb err 0) eqn:Ez; [assumption|]. intros ->. discriminate.
Qed.

(** an upload chunk is never the acknowledgement of an upload *)
Lemma put_chunk_never_ok w s tid data s' out :
  step w s (OPutChunk tid data) = (s', out) -> forall b, out <> Done cOK b.
Proof.
  unfold step. cbn [may_take_refresh_lock is_corrupt andb].
  destruct (thr_get (s_threads s) tid) as [[o i wr acc|o i acc| | |]|]; try (iinv; discriminate).
  - destruct (wr_size wr <? _); [destruct (finalize _ _ _ _)|]; iinv; discriminate.
  - destruct (osize w o <? _); iinv; discriminate.
Qed.

(** FindMissing refresh of one digest: a counted verdict means the location
    the digest resolved to was read, failed validation, and the boundary now
    lies above its block *)
Lemma detect_fm_refresh_one w s o i r s' : fm_refresh_one w s o i = (r, s') -> s_negs s' <> s_negs s ->
  r = Err cInternal /\ s_negs s' = S (s_negs s) /\
  exists k l, least_specific s (lookup_keys w o i) = Some (k, l) /\ l_abs l + 1 <= s_tbr s'.
Proof.
  intros H Hn. apply fm_refresh_one_cases in H as [[_ E _ _ _]|([_ E _ _ _] & -> & H)]; [contradiction|auto].
Qed.

(** still_accepts_uploads (partial): the only ways an upload that fits a block
    can be refused at its start are UNAVAILABLE from a block-device allocator
    whose free list is empty at the moment a block is needed, and the model's
    out-of-fuel code (-1).  The quarantine boundary itself never makes
    OPutStart fail. *)

Lemma push_back_none c s : push_back c s = None -> in_memory c = false /\ s_free s = [].
Proof.
  unfold push_back. destruct (new_block c s) as [[b s1]|] eqn:E; [discriminate|]. intros _.
  revert E. unfold new_block. destruct (in_memory c); [discriminate|].
  destruct (s_free s); [auto|discriminate].
Qed.

Lemma fbs_grow_false c fuel : forall s s', fbs_grow c fuel s = (false, s') ->
  in_memory c = false /\ s_free s' = [].
Proof.
  induction fuel as [|f IH]; intros s s'; cbn [fbs_grow]; [discriminate|].
  destruct (grow_new c (s_cur s) (s_new s)); [|discriminate].
  destruct (push_back c s) as [s1|] eqn:E; [apply IH|].
  iinv. apply push_back_none, E.
Qed.

Lemma fbs_rotate_false c fuel size : forall s s', fbs_rotate c fuel size s = (false, s') ->
  in_memory c = false /\ s_free s' = [].
Proof.
  induction fuel as [|f IH]; intros s s'; cbn [fbs_rotate]; [discriminate|].
  destruct (has_space c s (s_old s + s_cur s) size); [discriminate|].
  destruct (Nat.ltb (desired_new c) (s_new s)); [apply IH|].
  destruct (push_back c s) as [s1|] eqn:E; [apply IH|].
  iinv. apply push_back_none, E.
Qed.

Lemma has_space_upd_alloc c s a i idx size : has_space c (upd_alloc s a i) idx size = has_space c s idx size.
Proof. reflexivity. Qed.

Lemma fbs_pick_has_space c fuel size : forall s idx s', fbs_pick c fuel size s = Some (idx, s') ->
  has_space c s' idx size = true.
Proof.
  induction fuel as [|f IH]; intros s idx s'; cbn [fbs_pick]; [discriminate|].
  destruct (s_attempts s) as [|a]; [|destruct (s_aidx s) as [i|]]; try apply IH.
  destruct (has_space c s (s_old s + s_cur s + i) size) eqn:E; [|apply IH].
  iinv. rewrite has_space_upd_alloc. exact E.
Qed.

Lemma ocn_put_refusals c s size e s' : ocn_put c s size = (Err e, s') ->
  (e = cInvalidArgument /\ c_bs c < size) \/
  (e = cUnavailable /\ in_memory c = false /\ s_free s' = []) \/
  e = (-1)%Z.
Proof.
  unfold ocn_put. destruct (find_block_with_space c s size) as [[idx|e1] s1] eqn:E.
  - revert E. unfold find_block_with_space.
    destruct (c_bs c <? size); [discriminate|].
    destruct (fbs_grow c _ _) as [[] s2]; [|discriminate].
    destruct (fbs_rotate c _ size s2) as [[] s3]; [|discriminate].
    destruct (fbs_pick c _ size s3) as [[idx' s4]|] eqn:P; [|discriminate].
    iinv. apply fbs_pick_has_space in P. unfold has_space in P.
    destruct (nth_error (s_blocks s1) idx); [discriminate|discriminate].
  - iinv. revert E. unfold find_block_with_space.
    destruct (c_bs c <? size) eqn:Eb; [iinv; left; split; [reflexivity|lia]|].
    destruct (fbs_grow c _ _) as [[] s2] eqn:G.
    2:{ iinv. right. left. split; [reflexivity|]. eapply fbs_grow_false, G. }
    destruct (fbs_rotate c _ size s2) as [[] s3] eqn:R.
    2:{ iinv. right. left. split; [reflexivity|]. eapply fbs_rotate_false, R. }
    destruct (fbs_pick c _ size s3) as [[idx' s4]|]; [discriminate|].
    iinv. right. right. reflexivity.
Qed.

(** OPutStart of an object that fits a block, on a free thread id: it parks,
    or the block-device allocator had no free block (UNAVAILABLE, and the
    free list of the resulting state is empty), or the model ran out of fuel *)
Lemma put_start_accepts w s tid o i s' out :
  thr_get (s_threads s) tid = None -> osize w o <= c_bs (w_cfg w) ->
  step w s (OPutStart tid o i) = (s', out) ->
  out = Parked \/
  (out = Done cUnavailable [] /\ in_memory (w_cfg w) = false /\ s_free s' = []) \/
  out = Done (-1)%Z [].
Proof.
  intros Ht Hsz. unfold step. cbn [may_take_refresh_lock is_corrupt andb]. rewrite Ht.
  unfold put_start.
  match goal with |- context [if ?x then (Ok (TPutExisting o i []), s) else _] => destruct x end.
  { iinv. left. reflexivity. }
  destruct (ocn_put (w_cfg w) s (osize w o)) as [[wr|e] s1] eqn:E; iinv; [left; reflexivity|].
  apply ocn_put_refusals in E as [[E0 E]|[(E0 & E1 & E2)|E0]]; subst e.
  - lia.
  - right. left. auto.
  - right. right. reflexivity.
Qed.

(** in particular with the in-memory allocator only the fuel code remains *)
Lemma put_start_accepts_in_memory w s tid o i s' out :
  in_memory (w_cfg w) = true ->
  thr_get (s_threads s) tid = None -> osize w o <= c_bs (w_cfg w) ->
  step w s (OPutStart tid o i) = (s', out) ->
  out = Parked \/ out = Done (-1)%Z [].
Proof.
  intros Hm Ht Hsz H. apply put_start_accepts in H as [H|[(_ & H & _)|H]]; auto. congruence.
Qed.
