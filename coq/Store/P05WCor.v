(** C05, idempotence: the immediate repeat as a corollary, and
    non-vacuity instances. *)
From Coq Require Import List NArith ZArith Bool Arith Lia Relations.
From Coq Require Import ZifyN ZifyNat ZifyBool.
From BBS Require Import Common.Sx Store.Model Store.Wf Store.WfTids Run.RStore Run.R01 Run.R05.
From BBS Require Import Store.P05Cnt Store.P05Frame Store.P05Ops Store.P05Step Store.P05Surv Store.P05Mon
                        Store.P05Inv Store.P05Main Store.P05Touch Store.P05Wit.
From BBS Require Import Store.P05WInv Store.P05WRep.
Import ListNotations.
Open Scope N_scope.

Lemma same_pb s s' : same s s' -> s_pushbacks s' = s_pushbacks s.
Proof. intros [P _]. change (k_pb (proj s') = k_pb (proj s)). rewrite P. reflexivity. Qed.

Lemma get_consume_pb w s o uid l refresh fkeys code bytes s' :
  get_consume w s o uid l refresh fkeys = (code, bytes, s') -> s_pushbacks s' = s_pushbacks s.
Proof.
  intros H.
  destruct (get_consume_shape _ _ _ _ _ _ _ _ _ _ H)
    as (s1 & s2 & _ & E1 & _ & S2 & _ & [[-> _]|(wr & nl & _ & _ & _ & ->)]);
    rewrite (same_pb _ _ (same_unpin _ _ _)).
  - rewrite (same_pb _ _ S2). exact E1.
  - destruct (index_put_all_spec fkeys s2 nl) as (P5 & _).
    change (k_pb (proj (index_put_all s2 fkeys nl)) = s_pushbacks s). rewrite P5.
    change (s_pushbacks s2 = s_pushbacks s). rewrite (same_pb _ _ S2). exact E1.
Qed.

Lemma step_consume_pb w s tid s1 mo : step w s (OGetConsume tid) = (s1, mo) -> s_pushbacks s1 = s_pushbacks s.
Proof.
  intros ES. destruct (step_getconsume w s tid s1 mo ES) as [[_ ->]|(o & u & l & r & f & code & bs & s0 & _ & GC & -> & _)];
    [reflexivity|].
  apply get_consume_pb in GC. exact GC.
Qed.

Lemma step_consume_nopending_dev w s tid s1 mo :
  pending_refresh s tid = false -> step w s (OGetConsume tid) = (s1, mo) -> s_dev s1 = s_dev s.
Proof.
  intros PR ES. destruct (step_getconsume w s tid s1 mo ES) as [[_ ->]|(o & u & l & r & f & code & bs & s0 & HT & GC & -> & _)];
    [reflexivity|].
  unfold pending_refresh in PR. rewrite HT in PR. destruct r as [wr|]; [discriminate|].
  destruct (get_consume_shape _ _ _ _ _ _ _ _ _ _ GC)
    as (s1' & s2 & _ & _ & D1 & _ & N & [[-> _]|(wr & nl & E & _)]); [|discriminate].
  change (s_dev (unpin (w_cfg w) s2 u) = s_dev s). rewrite dev_unpin, (N eq_refl). exact D1.
Qed.

(** The immediate repeat: Get (open, consume: OK), then the same Get again.
    Neither step of the second Get allocates or writes; the medium after the
    second Get is the medium after the first.  Every reachable state. *)
Theorem immediate_repeat_get_writes_nothing w es0 tid o i s1 s2 bytes tid' s3 s4 mo :
  let s := fst (run w (init_state (w_cfg w)) es0) in
  step w s (OGetOpen tid o i) = (s1, Parked) ->
  step w s1 (OGetConsume tid) = (s2, Done cOK bytes) ->
  step w s2 (OGetOpen tid' o i) = (s3, Parked) ->
  step w s3 (OGetConsume tid') = (s4, mo) ->
  wrote w s2 (OGetOpen tid' o i) s3 = false /\ wrote w s3 (OGetConsume tid') s4 = false /\
  s_dev s4 = s_dev s2.
Proof.
  cbv zeta. intros E1 E2 E3 E4.
  assert (GC : get_completed w s1 tid [OGetConsume tid]).
  { right. exists [], [], bytes. split; [reflexivity|]. cbn [run fst]. split; [reflexivity|]. rewrite E2. reflexivity. }
  assert (R2 : fst (run w s1 [OGetConsume tid]) = s2).
  { rewrite run_cons, E2. reflexivity. }
  pose proof (repeat_get_writes_nothing_all w es0 tid o i s1 [OGetConsume tid] tid' s3 Parked) as H.
  cbv zeta in H. rewrite R2 in H.
  destruct (H E1 GC (step_consume_pb _ _ _ _ _ E2) E3) as (W1 & _ & D1 & P1).
  specialize (P1 eq_refl).
  split; [exact W1|]. split; [apply consume_without_pending_copy_writes_nothing, P1|].
  rewrite (step_consume_nopending_dev _ _ _ _ _ P1 E4). exact D1.
Qed.

(** the immediate repeat of a single-digest FindMissing *)
Theorem immediate_repeat_find_missing_writes_nothing w es0 o i s1 s2 mo :
  let s := fst (run w (init_state (w_cfg w)) es0) in
  step w s (OFindMissing [(o, i)]) = (s1, Missing cOK []) ->
  step w s1 (OFindMissing [(o, i)]) = (s2, mo) ->
  wrote w s1 (OFindMissing [(o, i)]) s2 = false /\ s_dev s2 = s_dev s1.
Proof.
  cbv zeta. intros E1 E2.
  exact (repeat_find_missing_writes_nothing_all w es0 o i s1 [] s2 mo E1 eq_refl E2).
Qed.

Open Scope Z_scope.
(** raw factory (foreground copy): the first Get of the old object 0 writes
    when the reader is obtained, the immediately repeated Get does not *)
Definition esR : list op :=
  put 1 0 ++ put 2 1 ++ put 3 2 ++ [OGetOpen 9 0 0; OGetConsume 9; OGetOpen 10 0 0; OGetConsume 10].
Example repeat_get_non_vacuous_raw :
  wf_world wB = true /\ wf_ops wB [] esR = true /\ wf_tids esR = true /\
  map (fun x => match x with (e, (s0, s1, mo)) => (out_ok mo, wrote wB s0 e s1) end) (skipn 9 (run_x wB esR))
  = [(false, true); (true, false); (false, false); (true, false)].
Proof. vm_compute. repeat split. Qed.

(** validating factory on a block device (copy in lock step with the
    consumer): the first Get writes when the reader is consumed *)
Definition cfgV : config :=
  {| c_bs := 4%N; c_old := 2; c_cur := 0; c_new := 1; c_mutable := false; c_nblocks := 6;
     c_hier := false; c_inst_keys := false; c_validate := true |}.
Definition wV : world := world_of cfgV.
Example repeat_get_non_vacuous_cas :
  wf_world wV = true /\ wf_ops wV [] esR = true /\ wf_tids esR = true /\
  map (fun x => match x with (e, (s0, s1, mo)) => (out_ok mo, wrote wV s0 e s1) end) (skipn 9 (run_x wV esR))
  = [(false, false); (true, true); (false, false); (true, false)].
Proof. vm_compute. repeat split. Qed.

(** single-digest FindMissing: the first call copies the old object 1, the
    repeat does not *)
Definition esFM : list op :=
  put 1 0 ++ put 2 1 ++ put 3 2 ++ [OFindMissing [(1, 0)]%nat; OFindMissing [(1, 0)]%nat].
Example repeat_find_missing_non_vacuous :
  wf_world wB = true /\ wf_ops wB [] esFM = true /\ wf_tids esFM = true /\
  map (fun x => match x with (e, (s0, s1, mo)) => (mo, wrote wB s0 e s1) end) (skipn 9 (run_x wB esFM))
  = [(Missing cOK [], true); (Missing cOK [], false)].
Proof. vm_compute. repeat split. Qed.

(** the completion hypothesis of [repeat_get_writes_nothing_all] cannot be
    dropped: two Gets of the same old object that are open at the same time
    both copy it (block device, validating factory, two objects per block:
    the second reader carries a pending copy of its own and writes when it
    is consumed) *)
Definition cfgW : config :=
  {| c_bs := 8%N; c_old := 1; c_cur := 0; c_new := 1; c_mutable := false; c_nblocks := 4;
     c_hier := false; c_inst_keys := false; c_validate := true |}.
Definition wW : world := world_of cfgW.
Example concurrent_gets_both_copy :
  let es := put 1 0 ++ put 2 1 ++ put 3 2 ++ [OGetOpen 9 0 0] in
  let s1 := fst (run wW (init_state (w_cfg wW)) es) in
  let s3 := fst (step wW s1 (OGetOpen 10 0 0)) in
  wf_world wW = true /\ pending_refresh s1 9 = true /\
  snd (step wW s1 (OGetOpen 10 0 0)) = Parked /\
  alloc_grew s1 s3 = true /\ pending_refresh s3 10 = true /\
  wrote wW s3 (OGetConsume 10) (fst (step wW s3 (OGetConsume 10))) = true /\
  snd (step wW s3 (OGetConsume 10)) = Done cOK (nth 0 objs []).
Proof. vm_compute. repeat split. Qed.
