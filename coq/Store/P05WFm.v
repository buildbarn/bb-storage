(** C05, idempotence: what a successful FindMissing (any number of
    digests) leaves behind, and why an immediately repeated call that writes
    reports at least two digests present (clause 4, not clause 3).

    After a call that returned OK, either
    - (no copy was made) every digest of the call is settled or not found:
      the repeat allocates and writes nothing; or
    - (a copy was made) the digest copied LAST is found at a location that is
      not old by the lookup itself: the repeat neither reports it missing
      nor examines it again - it is present - and any digest the repeat
      copies is present as well. *)
From Coq Require Import Relations.
From Coq Require Import ZifyBool.
From BBS Require Import Common.Sx Store.Model.
From BBS Require Import Store.P05Cnt Store.P05Frame Store.P05Ops Store.P05Touch.
From BBS Require Import Store.P05WInv Store.P05WRep Store.P05WEnd.
Import ListNotations.
Open Scope N_scope.

Lemma ls_intro s : forall pre k post l,
  (forall k', In k' pre -> index_get s k' = None) -> index_get s k = Some l ->
  least_specific s (pre ++ k :: post) = Some (k, l).
Proof.
  induction pre as [|k0 t IH]; intros k post l HN HG; cbn [app least_specific].
  - rewrite HG. reflexivity.
  - rewrite (HN k0 (or_introl eq_refl)). apply IH; [intros k' H; apply HN; right; exact H|exact HG].
Qed.
Lemma ls_elim s : forall ks k l, least_specific s ks = Some (k, l) ->
  exists pre post, ks = pre ++ k :: post /\ (forall k', In k' pre -> index_get s k' = None) /\ index_get s k = Some l.
Proof.
  induction ks as [|k0 t IH]; intros k l H; cbn [least_specific] in H; [discriminate|].
  destruct (index_get s k0) as [l0|] eqn:E.
  - inversion H; subst. exists [], t. split; [reflexivity|]. split; [intros k' []|exact E].
  - destruct (IH k l H) as (pre & post & -> & HN & HG). exists (k0 :: pre), post.
    split; [reflexivity|]. split; [|exact HG]. intros k' [<-|Hk]; [exact E|apply HN, Hk].
Qed.
Lemma ls_none_intro s : forall ks, (forall k, In k ks -> index_get s k = None) -> least_specific s ks = None.
Proof.
  induction ks as [|k0 t IH]; intros H; cbn [least_specific]; [reflexivity|].
  rewrite (H k0 (or_introl eq_refl)). apply IH. intros k Hk. apply H. right. exact Hk.
Qed.

(** keys under which objects are looked up (never the canonical key of a
    hierarchical store) *)
Definition lkey (w : world) (k : key) : Prop := c_hier (w_cfg w) = true -> exists o a, k = (o, S a).
Lemma lookup_lkey w o i k : In k (lookup_keys w o i) -> lkey w k.
Proof. intros H Hh. destruct (lookup_keys_hier w o i k Hh H) as (a & ->). eauto. Qed.

Lemma index_get_put_other s k1 l1 k2 : k2 <> k1 -> index_get (index_put s k1 l1) k2 = index_get s k2.
Proof.
  intros NE. unfold index_get, index_put, upd_index; cbn [s_index filter fst snd].
  assert (E : key_eqb k1 k2 = false).
  { destruct (key_eqb k1 k2) eqn:E; [|reflexivity]. apply key_eqb_eq in E. congruence. }
  rewrite E. cbn [andb]. reflexivity.
Qed.

Lemma index_get_put_all_other ks : forall s l k2, ~ In k2 ks -> index_get (index_put_all s ks l) k2 = index_get s k2.
Proof.
  induction ks as [|k t IH]; intros s l k2 NI; cbn [index_put_all]; [reflexivity|].
  rewrite IH; [|intros H; apply NI; right; exact H].
  apply index_get_put_other. intros ->. apply NI. left. reflexivity.
Qed.

Lemma index_get_none_mono s s' k :
  eix s -> s_index s' = s_index s -> s_tbr s <= s_tbr s' ->
  index_get s k = None -> index_get s' k = None.
Proof.
  intros EI IX TB HN. destruct (index_get s' k) as [l'|] eqn:E; [|reflexivity]. exfalso.
  apply index_get_some in E. destruct E as [IN V]. rewrite IX in IN.
  eapply (index_get_of_valid s k l'); [exact IN| |exact HN].
  pose proof (EI _ _ IN) as B. unfold k_end in B. cbn in B. unfold loc_valid in *. lia.
Qed.

Lemma index_get_some_back s s' k :
  eix s -> s_index s' = s_index s -> s_tbr s <= s_tbr s' ->
  index_get s' k <> None -> index_get s k <> None.
Proof. intros EI IX TB H HN. apply H. eapply index_get_none_mono; eauto. Qed.

Definition LSF (w : world) (s : state) (o i : nat) : Prop :=
  exists k l, least_specific s (lookup_keys w o i) = Some (k, l) /\ needs_refresh s l = false.

Lemma LSF_settled w s o i : (c_hier (w_cfg w) = true -> hinv s) -> LSF w s o i -> settled w s o i.
Proof.
  intros HH (k & l & LS & NR). apply least_specific_some in LS. destruct LS as [KI IG].
  apply index_get_some in IG. destruct IG as [IN V].
  exists k, l. split; [exact KI|]. split; [exact IN|]. split.
  - intros Hh. destruct (lookup_keys_hier w o i k Hh KI) as (a & ->). exact (proj1 (HH Hh) _ _ _ IN).
  - split; [exact NR|]. unfold loc_valid in V. lia.
Qed.

Lemma LSF_put w s k cl o i :
  index_get s k <> None -> loc_valid s cl = true -> needs_refresh s cl = false ->
  LSF w s o i -> LSF w (index_put s k cl) o i.
Proof.
  intros HK VC NC (k0 & l0 & LS & NR).
  destruct (ls_elim s _ _ _ LS) as (pre & post & EK & HN & HG).
  set (s' := index_put s k cl).
  assert (P : proj s' = proj s) by reflexivity.
  assert (PRE : forall k', In k' pre -> index_get s' k' = None).
  { intros k' Hk'. unfold s'. rewrite index_get_put_other; [apply HN, Hk'|].
    intros ->. apply HK. apply HN, Hk'. }
  pose proof (index_get_some _ _ _ HG) as [IN0 V0].
  assert (IN' : In (k0, l0) (s_index s')) by (right; exact IN0).
  assert (V' : loc_valid s' l0 = true) by exact V0.
  destruct (index_get_newest s' k0 l0 IN' V') as (l' & G' & LE & _).
  exists k0, l'. split.
  - rewrite EK. apply ls_intro; auto.
  - rewrite (needs_refresh_proj _ _ _ P). unfold needs_refresh in *. lia.
Qed.

Definition KV (w : world) (s s1 : state) : Prop :=
  forall k, lkey w k -> index_get s1 k <> None -> index_get s k <> None.

Lemma KV_refl w s : KV w s s. Proof. intros k _ H. exact H. Qed.
Lemma KV_trans w a b c : KV w a b -> KV w b c -> KV w a c.
Proof. intros H1 H2 k L H. apply (H1 k L), (H2 k L), H. Qed.

Definition NONCOPY (w : world) (s s1 : state) (o i : nat) : Prop :=
  proj s1 = proj s /\ incl (s_index s) (s_index s1) /\ settled w s1 o i /\
  (forall o' i', LSF w s o' i' -> LSF w s1 o' i').

Lemma fm_refresh_one_inv w s o i r s1 :
  einv s -> (c_hier (w_cfg w) = true -> hinv s) ->
  fm_refresh_one w s o i = (r, s1) ->
  KV w s s1 /\
  match r with
  | Ok false => s1 = s /\ least_specific s (lookup_keys w o i) = None
  | Ok true => NONCOPY w s s1 o i \/ LSF w s1 o i
  | Err _ => True
  end.
Proof.
  intros EI HH H. rewrite fm_refresh_one_eq in H.
  destruct (least_specific s (lookup_keys w o i)) as [[k l]|] eqn:LS.
  2:{ inversion H; subst. split; [apply KV_refl|auto]. }
  pose proof (least_specific_some _ _ _ _ LS) as [KI IG].
  pose proof (index_get_some _ _ _ IG) as [IN V].
  destruct (negb (needs_refresh s l)) eqn:NR.
  { apply negb_true_iff in NR. inversion H; subst. split; [apply KV_refl|]. left.
    assert (LF : LSF w s1 o i) by (exists k, l; auto).
    split; [reflexivity|]. split; [apply incl_refl|]. split; [apply LSF_settled; auto|auto]. }
  apply negb_false_iff in NR.
  (* synchronisation from the canonical entry *)
  assert (SYNC : forall cl s', sync_from_canonical s o k = Some (cl, s') ->
            KV w s s' /\ NONCOPY w s s' o i).
  { intros cl s' SY. apply sync_from_canonical_some in SY. destruct SY as (IC & NC & ->).
    pose proof (index_get_some _ _ _ IC) as [INC VC].
    assert (HKn : index_get s k <> None) by congruence.
    split.
    - intros k' _ Hk'. destruct (key_eqb k' k) eqn:E.
      + apply key_eqb_eq in E. subst k'. exact HKn.
      + rewrite index_get_put_other in Hk'; [exact Hk'|]. intros ->.
        rewrite (proj2 (key_eqb_eq k k) eq_refl) in E. discriminate.
    - split; [reflexivity|]. split; [apply incl_tl, incl_refl|]. split.
      + exists k, cl. split; [exact KI|]. split; [left; reflexivity|]. split; [intros _; right; exact INC|].
        split; [exact NC|]. unfold loc_valid in VC. cbn. clear - VC. lia.
      + intros o' i' LF. apply LSF_put; auto. }
  (* the copying path *)
  assert (COPY : forall fkeys, In k fkeys ->
            (forall k', In k' fkeys -> k' = k \/ (c_hier (w_cfg w) = true /\ k' = canonical_key o)) ->
            fm_copy w s o l fkeys = (r, s1) ->
            KV w s s1 /\ match r with Ok false => False | Ok true => LSF w s1 o i | Err _ => True end).
  { intros fkeys KF FKS HC.
    assert (BASE : forall s3, frx (w_cfg w) s s3 -> s_index s3 = s_index s -> KV w s s3).
    { intros s3 (R & _ & _) IX k' _ Hk'. eapply index_get_some_back; [exact (proj1 EI)|exact IX| |exact Hk'].
      apply creach_mono in R. unfold kmono in R. cbn in R. clear - R. lia. }
    destruct (fm_copy_shape _ _ _ _ _ _ _ HC) as [(e & -> & _ & F)|(s3 & nl & -> & F03 & -> & (T1 & T2 & T3))].
    { split; [|exact I]. apply BASE; [apply fr_frx; exact F|exact (proj1 (proj2 F))]. }
    pose proof (BASE s3 (fr_frx _ _ _ F03) (proj1 (proj2 F03))) as KV3.
    destruct (index_put_all_spec fkeys s3 nl) as (P5 & _ & I5 & A5).
    unfold k_end in T3. cbn in T1, T2, T3.
    split.
    - intros k' LK Hk'.
      assert (DEC : forall a b : key, {a = b} + {a <> b}) by (decide equality; apply Nat.eq_dec).
      destruct (in_dec DEC k' fkeys) as [INK|NIK].
      + destruct (FKS k' INK) as [->|[Hh ->]]; [congruence|].
        destruct (LK Hh) as (o' & a' & E). discriminate.
      + rewrite index_get_put_all_other in Hk'; [|exact NIK]. apply (KV3 k' LK Hk').
    - (* found not old by the lookup *)
      destruct (ls_elim s _ _ _ LS) as (pre & post & EK & HN & HG).
      assert (VNL : loc_valid (index_put_all s3 fkeys nl) nl = true).
      { rewrite (loc_valid_proj _ _ _ P5). apply andb_true_iff. split; [apply N.leb_le, T1|apply N.ltb_lt, T3]. }
      destruct (index_get_newest _ k nl (A5 k KF) VNL) as (l' & G' & LE & _).
      exists k, l'. split.
      + rewrite EK. apply ls_intro; [|exact G'].
        intros k' Hk'.
        assert (NIK : ~ In k' fkeys).
        { intros INK. destruct (FKS k' INK) as [->|[Hh ->]].
          - specialize (HN k Hk'). congruence.
          - assert (LK : lkey w (canonical_key o)).
            { apply (lookup_lkey w o i). rewrite EK. apply in_or_app. left. exact Hk'. }
            destruct (LK Hh) as (o' & a' & E). discriminate. }
        rewrite index_get_put_all_other; [|exact NIK].
        eapply index_get_none_mono; [exact (proj1 EI)|exact (proj1 (proj2 F03))| |apply HN, Hk'].
        destruct F03 as [R _]. apply creach_mono in R. apply R.
      + rewrite (needs_refresh_proj _ _ _ P5). unfold needs_refresh. clear - LE T2. lia. }
  destruct (c_hier (w_cfg w)) eqn:Hh.
  - destruct (sync_from_canonical s o k) as [[cl s']|] eqn:SY.
    + inversion H; subst. destruct (SYNC cl s1 eq_refl) as [A B]. split; [exact A|left; exact B].
    + apply COPY in H.
      * destruct H as [A B]. split; [exact A|]. destruct r as [[|]|e]; [right; exact B|destruct B|exact I].
      * right. left. reflexivity.
      * intros k' [<-|[<-|[]]]; [right; split; reflexivity|left; reflexivity].
  - apply COPY in H.
    + destruct H as [A B]. split; [exact A|]. destruct r as [[|]|e]; [right; exact B|destruct B|exact I].
    + left. reflexivity.
    + intros k' [<-|[]]. left. reflexivity.
Qed.
