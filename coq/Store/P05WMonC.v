(** C05, idempotence: which clauses the R05 monitor can report on
    the model's observations carrying the model's own write indication.

    [RX wcl] (P05Mon.v) relates the monitor's state to the early-stamping
    bookkeeping: with [wcl] the write clauses 2, 3, 4, 7 may appear among the
    reported violations; P05WMonB.v removes 2 and 3. *)
From Coq Require Import Relations.
From BBS Require Import Common.Sx Store.Model Store.WfTids Run.R05.
From BBS Require Import Store.P05Mon Store.P05Inv Store.P05Main.
From BBS Require Import Store.P05WMonA Store.P05WMonB.
Import ListNotations.
Open Scope Z_scope.

(** for ALL schedules with fresh thread ids: clauses 2 and 3 are never
    reported; anything reported is 4, 5, 6, 7 or a clause 1 that the
    early-stamping bookkeeping reports too *)
Theorem mon05w_model_clauses w es z :
  wf_tids es = true -> In z (mon05w_model w es) ->
  (z = 1 /\ mon05_early w es <> []) \/ z = 4 \/ z = 5 \/ z = 6 \/ z = 7.
Proof.
  intros WT H.
  pose proof (PI_run w es [] (init_state (w_cfg w)) m05_init (PI_init w) WT) as [N2 N3].
  change (xs_of w (init_state (w_cfg w)) es) with (run_x w es) in N2, N3.
  assert (HS : forall m g x, RX wcl m g -> RX wcl (m05w_step w m x) (g05_step false w g x)).
  { intros m g [e [[s0 s1] mo]]. apply RX_step; [apply renders_enc_obs05|left; auto]. }
  destruct (RX_clauses wcl (m05w_step w) w es z HS H) as [A|[W|B]]; [left; exact A| |right; destruct B as [-> | ->]; auto].
  (* clauses 2 and 3 are excluded by the invariant of P05WMonB.v *)
  apply dedupZ_in in H. right. destruct W as [-> | [-> | [-> | ->]]]; [contradiction|contradiction|auto|auto].
Qed.

(** with model integrity: clause 1 is not reported either *)
Theorem model_idempotent_C05 w es :
  wf_tids es = true -> integ w (init_state (w_cfg w)) es ->
  forall z, In z (mon05w_model w es) -> z = 4 \/ z = 5 \/ z = 6 \/ z = 7.
Proof.
  intros WT IG z H. destruct (mon05w_model_clauses w es z WT H) as [[_ N]|H1]; [|exact H1].
  exfalso. apply N. apply early_monitor_silent; assumption.
Qed.
