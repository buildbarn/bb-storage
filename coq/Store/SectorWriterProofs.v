(** Store/SectorWriterProofs.v — list lemmas on [write_at], the allocator invariant
    [ainv], the shape of the writer's steps and contiguity of allocations. *)
From Coq Require Import List Arith ZArith Bool Lia.
From BBS Require Import Store.SectorWriter Store.SectorWriterArith.
Import ListNotations.

Lemma write_at_length d o s : length (write_at d o s) = length d.
Proof.
  revert o s. induction d as [|x d IH]; intros o s; cbn; [reflexivity|].
  destruct o; [destruct s; cbn; [reflexivity|rewrite IH; reflexivity]|cbn; rewrite IH; reflexivity].
Qed.

Lemma nth_write_at_in d o s i x :
  o <= i -> i < o + length s -> i < length d -> nth i (write_at d o s) x = nth (i - o) s x.
Proof.
  revert o s i. induction d as [|y d IH]; intros o s i H1 H2 H3; cbn [length] in H3; [lia|].
  destruct o as [|o], i as [|i]; try lia.
  - destruct s as [|b s]; [cbn [length] in H2; lia|reflexivity].
  - destruct s as [|b s]; cbn [length] in H2; [lia|]. cbn [write_at nth Nat.sub].
    rewrite IH by lia. rewrite Nat.sub_0_r. reflexivity.
  - apply (IH o s i); lia.
Qed.

Lemma nth_write_at_out d o s i x :
  i < o \/ o + length s <= i -> nth i (write_at d o s) x = nth i d x.
Proof.
  revert o s i. induction d as [|y d IH]; intros o s i H; [reflexivity|]. destruct o as [|o].
  - destruct s as [|b s]; [reflexivity|]. cbn [length] in H. destruct i as [|i]; [lia|].
    apply (IH 0 s i). lia.
  - destruct i as [|i]; [reflexivity|]. apply (IH o s i). lia.
Qed.

Lemma nth_write_at d o s i x :
  nth i (write_at d o s) x =
  if (o <=? i) && (i <? o + length s) && (i <? length d) then nth (i - o) s x else nth i d x.
Proof.
  destruct (Nat.leb_spec o i), (Nat.ltb_spec i (o + length s)), (Nat.ltb_spec i (length d)); cbn [andb];
    try (apply nth_write_at_out; lia).
  - apply nth_write_at_in; assumption.
  - rewrite !nth_overflow by (rewrite ?write_at_length; lia). reflexivity.
Qed.

Lemma upd_length {T} (l : list T) i x : length (upd l i x) = length l.
Proof. revert i; induction l; intros [|i]; cbn; auto. Qed.

Lemma nth_error_upd_eq {T} (l : list T) i x : i < length l -> nth_error (upd l i x) i = Some x.
Proof. revert i; induction l; intros [|i] H; cbn in *; try lia; auto. apply IHl. lia. Qed.

Lemma nth_error_upd_ne {T} (l : list T) i j x : i <> j -> nth_error (upd l i x) j = nth_error l j.
Proof. revert i j; induction l; intros [|i] [|j] H; cbn; auto; try lia. Qed.

Lemma nth_upd_eq {T} (l : list T) i x d : i < length l -> nth i (upd l i x) d = x.
Proof. revert i; induction l; intros [|i] H; cbn in *; try lia; auto. apply IHl. lia. Qed.

Lemma nth_upd_ne {T} (l : list T) i j x d : i <> j -> nth j (upd l i x) d = nth j l d.
Proof. revert i j; induction l; intros [|i] [|j] H; cbn; auto; try lia. Qed.

Lemma apply_writes_app dev l1 l2 : apply_writes dev (l1 ++ l2) = apply_writes (apply_writes dev l1) l2.
Proof. unfold apply_writes. apply fold_left_app. Qed.

Lemma apply_writes_length dev l : length (apply_writes dev l) = length dev.
Proof.
  revert dev; induction l as [|w l IH]; intros dev; cbn; [reflexivity|].
  unfold apply_writes in IH. rewrite IH. apply write_at_length.
Qed.

Definition cpos (c : cfg) (b : cursor) : nat := b_wos b * c_sector c + shared_off b.

Definition cursor_wf (c : cfg) (b : cursor) : Prop :=
  match b_shared b with Some (_, o) => 0 < o < c_sector c | None => True end.

Lemma has_space_fits c b size :
  has_space c b size = true <-> cpos c b + size <= c_spb c * c_sector c.
Proof. unfold has_space, cpos. rewrite Nat.leb_le. lia. Qed.

Lemma new_block_wf c : cursor_wf c new_block.
Proof. exact I. Qed.
Lemma new_block_at_wf c r : cursor_wf c (new_block_at c r).
Proof. exact I. Qed.

Lemma new_block_at_pos c r : 1 <= c_sector c ->
  r <= cpos c (new_block_at c r) < r + c_sector c /\ cpos c (new_block_at c r) mod c_sector c = 0.
Proof.
  intros HS. unfold cpos, new_block_at, shared_off. cbn. rewrite Nat.add_0_r.
  pose proof (ceil_ge _ HS r). destruct (sec_bounds _ HS (r + c_sector c - 1)).
  split; [lia|]. apply Nat.mod_mul. lia.
Qed.

Lemma alloc_cases c b images size b' images' w start :
  alloc c b images size = (b', images', w, start) ->
  let off := shared_off b in
  let cnt := (off + size) / c_sector c in let lastoff := (off + size) mod c_sector c in
  start = b_wos b * c_sector c + off /\
  w = {| w_off := c_base c + b_wos b; w_first := option_map fst (b_shared b); w_firstoff := off;
         w_partial := []; w_last := option_map fst (b_shared b') |} /\
  b_wos b' = b_wos b + cnt /\
  ((lastoff = 0 /\ b_shared b' = None /\ images' = images) \/
   (lastoff <> 0 /\ cnt = 0 /\ (exists id o, b_shared b = Some (id, o) /\ b_shared b' = Some (id, lastoff)) /\
    images' = images) \/
   (lastoff <> 0 /\ (b_shared b = None \/ 0 < cnt) /\ b_shared b' = Some (length images, lastoff) /\
    images' = images ++ [{| im_sec := b_wos b + cnt; im_data := zeros (c_sector c) |}])).
Proof.
  unfold alloc. cbv zeta.
  destruct (Nat.eqb_spec ((shared_off b + size) mod c_sector c) 0) as [H0|H0].
  - intros [= <- <- <- <-]. cbn. repeat split; auto.
  - destruct (b_shared b) as [[id o]|] eqn:Hs.
    + destruct (Nat.ltb_spec 0 ((shared_off b + size) / c_sector c)) as [Hc|Hc];
        intros [= <- <- <- <-]; cbn; repeat split; auto.
      * right; right. repeat split; auto.
      * right; left. repeat split; auto; try lia. eauto.
    + intros [= <- <- <- <-]; cbn; repeat split; auto.
      right; right. repeat split; auto.
Qed.
Lemma alloc_spec c b images size b' images' w start :
  1 <= c_sector c -> cursor_wf c b ->
  alloc c b images size = (b', images', w, start) ->
  start = cpos c b /\ cpos c b' = cpos c b + size /\ cursor_wf c b'.
Proof.
  intros HS Hwf Hal. destruct (alloc_cases c _ _ _ _ _ _ _ Hal) as (Hst & _ & Hwos & Hcases).
  cbv zeta in Hcases. destruct (sec_split _ HS (shared_off b + size)) as [E U].
  unfold cpos, cursor_wf. split; [exact Hst|]. unfold shared_off at 1. rewrite Hwos.
  destruct Hcases as [(L0 & -> & _)|[(L0 & _ & (id & o & _ & ->) & _)|(L0 & _ & -> & _)]];
    (split; [lia|try exact I; lia]).
Qed.

Ltac dif := match goal with |- context [if ?b then _ else _] => destruct b eqn:? end.

Lemma write_rest_last c w p : w_last (fst (write_rest c w p)) = w_last w.
Proof. unfold write_rest. repeat (dif; cbn); reflexivity. Qed.

Lemma write_last c images w p : w_last (snd (fst (write c images w p))) = w_last w.
Proof.
  unfold write. destruct (w_first w).
  - dif; [reflexivity|].
    match goal with |- context [write_rest c ?w1 ?q] =>
      pose proof (write_rest_last c w1 q) as H; destruct (write_rest c w1 q) end.
    exact H.
  - pose proof (write_rest_last c w p) as H. destruct (write_rest c w p). exact H.
Qed.

Definition same_geom (t t' : thread) : Prop :=
  t_start t' = t_start t /\ t_size t' = t_size t /\ t_first0 t' = t_first0 t /\
  w_last (t_w t') = w_last (t_w t).

Definition is_alloc (e : event) : bool := match e with EAlloc _ => true | _ => false end.

Lemma step_alloc_shape c s size s' log : step c s (EAlloc size) = Some (s', log) ->
  exists t, log = [] /\ st_dev s' = st_dev s /\ st_threads s' = st_threads s ++ [t] /\
    t_data t = [] /\ t_status t = Active.
Proof.
  cbn [step]. destruct (has_space c (st_cur s) size); [|discriminate].
  destruct (alloc c (st_cur s) (st_images s) size) as [[[b' im'] w] start].
  intros [= <- <-]. eexists. repeat split.
Qed.

Lemma step_write_iff c s k chunk s' log t : nth_error (st_threads s) k = Some t ->
  let r := write c (st_images s) (t_w t) chunk in
  step c s (EWrite k chunk) = Some (s', log) <->
  t_status t = Active /\ length (t_data t) + length chunk <= t_size t /\ log = snd r /\
  s' = set_thread s k {| t_w := snd (fst r); t_start := t_start t; t_size := t_size t;
                         t_data := t_data t ++ chunk; t_first0 := t_first0 t; t_status := Active |}
         (fst (fst r)) (snd r).
Proof.
  intros Hk. cbn [step]. rewrite Hk. cbv zeta.
  destruct (write c (st_images s) (t_w t) chunk) as [[im w'] lg]. cbn [fst snd].
  destruct (t_status t); try (split; [discriminate|intros (E & _); discriminate]).
  destruct (Nat.leb_spec (length (t_data t) + length chunk) (t_size t)) as [Hn|Hn].
  - split; [intros [= <- <-]; auto|intros (_ & _ & -> & ->); reflexivity].
  - split; [discriminate|intros (_ & Hl & _); lia].
Qed.

Lemma step_flush_iff c s k s' log t : nth_error (st_threads s) k = Some t ->
  let r := flush c (st_images s) (t_w t) in
  step c s (EFlush k) = Some (s', log) <->
  t_status t = Active /\ length (t_data t) = t_size t /\ log = snd r /\
  s' = set_thread s k {| t_w := t_w t; t_start := t_start t; t_size := t_size t; t_data := t_data t;
                         t_first0 := t_first0 t; t_status := Flushed |} (fst r) (snd r).
Proof.
  intros Hk. cbn [step]. rewrite Hk. cbv zeta.
  destruct (flush c (st_images s) (t_w t)) as [im lg]. cbn [fst snd].
  destruct (t_status t); try (split; [discriminate|intros (E & _); discriminate]).
  destruct (Nat.eqb_spec (length (t_data t)) (t_size t)) as [Hn|Hn].
  - split; [intros [= <- <-]; auto|intros (_ & _ & -> & ->); reflexivity].
  - split; [discriminate|intros (_ & Hl & _); contradiction].
Qed.

Lemma step_abandon_iff c s k s' log t : nth_error (st_threads s) k = Some t ->
  step c s (EAbandon k) = Some (s', log) <->
  t_status t = Active /\ log = [] /\
  s' = set_thread s k {| t_w := t_w t; t_start := t_start t; t_size := t_size t; t_data := t_data t;
                         t_first0 := t_first0 t; t_status := Abandoned |} (st_images s) [].
Proof.
  intros Hk. cbn [step]. rewrite Hk.
  destruct (t_status t); try (split; [discriminate|intros (E & _); discriminate]).
  split; [intros [= <- <-]; auto|intros (_ & -> & ->); reflexivity].
Qed.

Lemma step_writer_shape c s e s' log :
  step c s e = Some (s', log) -> is_alloc e = false ->
  exists k t t' images',
    nth_error (st_threads s) k = Some t /\ t_status t = Active /\
    s' = set_thread s k t' images' log /\ same_geom t t'.
Proof.
  destruct e as [size|k chunk|k|k]; intros H Ha; try discriminate;
    (destruct (nth_error (st_threads s) k) as [t|] eqn:Hk; [|cbn in H; rewrite Hk in H; discriminate]);
    exists k, t.
  - destruct (proj1 (step_write_iff _ _ _ _ _ _ _ Hk) H) as (Hact & _ & -> & ->).
    do 2 eexists. repeat split; auto. apply write_last.
  - destruct (proj1 (step_flush_iff _ _ _ _ _ _ Hk) H) as (Hact & _ & -> & ->).
    do 2 eexists. repeat split; auto.
  - destruct (proj1 (step_abandon_iff _ _ _ _ _ _ Hk) H) as (Hact & -> & ->).
    do 2 eexists. repeat split; auto.
Qed.

Lemma run_invariant c (P : state -> Prop) :
  (forall s e s' l, P s -> step c s e = Some (s', l) -> P s') ->
  forall tr s s', P s -> run c s tr = Some s' -> P s'.
Proof.
  intros Hstep. induction tr as [|e tr IH]; intros s s' Hi Hr; cbn in Hr.
  - inversion Hr; subst; exact Hi.
  - destruct (step c s e) as [[s1 l]|] eqn:Hs; [|discriminate].
    exact (IH s1 s' (Hstep _ _ _ _ Hi Hs) Hr).
Qed.

Fixpoint chained (lo : nat) (ts : list thread) : Prop :=
  match ts with [] => True | t :: ts' => t_start t = lo /\ chained (lo + t_size t) ts' end.
Fixpoint chain_end (lo : nat) (ts : list thread) : nat :=
  match ts with [] => lo | t :: ts' => chain_end (lo + t_size t) ts' end.

Lemma chained_app lo ts t :
  chained lo ts -> t_start t = chain_end lo ts -> chained lo (ts ++ [t]).
Proof. revert lo; induction ts as [|u ts IH]; cbn; intros lo H E; [auto|]. destruct H; split; auto. Qed.

Lemma chain_end_app lo ts t : chain_end lo (ts ++ [t]) = chain_end lo ts + t_size t.
Proof. revert lo; induction ts as [|u ts IH]; cbn; intros lo; auto. Qed.

Lemma chained_upd lo ts k t t' :
  nth_error ts k = Some t -> t_start t' = t_start t -> t_size t' = t_size t ->
  (chained lo ts -> chained lo (upd ts k t')) /\ chain_end lo (upd ts k t') = chain_end lo ts.
Proof.
  revert lo k; induction ts as [|u ts IH]; intros lo [|k] Hk Hs Hz; cbn in *; try discriminate.
  - inversion Hk; subst. rewrite Hs, Hz. tauto.
  - destruct (IH (lo + t_size u) k Hk Hs Hz). tauto.
Qed.

Lemma chained_bounds lo ts i ti :
  chained lo ts -> nth_error ts i = Some ti ->
  lo <= t_start ti /\ t_start ti + t_size ti <= chain_end lo ts.
Proof.
  assert (forall l m, m <= chain_end m l) as Mono.
  { induction l; cbn; intros; [lia|]. specialize (IHl (m + t_size a)). lia. }
  revert lo i; induction ts as [|u ts IH]; intros lo i H Hi; [destruct i; discriminate|].
  cbn in H. destruct H as [Hu H]. destruct i as [|i]; cbn in Hi |- *.
  - inversion Hi; subst u. specialize (Mono ts (lo + t_size ti)). lia.
  - specialize (IH _ _ H Hi). lia.
Qed.

Lemma chained_order lo ts i j ti tj :
  chained lo ts -> i < j -> nth_error ts i = Some ti -> nth_error ts j = Some tj ->
  lo <= t_start ti /\ t_start ti + t_size ti <= t_start tj /\ t_start tj + t_size tj <= chain_end lo ts.
Proof.
  revert lo i j; induction ts as [|u ts IH]; intros lo i j H Hij Hi Hj; [destruct i; discriminate|].
  destruct j as [|j]; [lia|]. cbn in H, Hj |- *. destruct H as [Hu H].
  destruct i as [|i]; cbn in Hi.
  - inversion Hi; subst u. pose proof (chained_bounds _ _ _ _ H Hj). lia.
  - specialize (IH (lo + t_size u) i j H ltac:(lia) Hi Hj). lia.
Qed.

(** allocator invariant of the transition system, from a cursor at position [lo] *)
Definition ainv (c : cfg) (lo : nat) (s : state) : Prop :=
  cursor_wf c (st_cur s) /\ chained lo (st_threads s) /\
  chain_end lo (st_threads s) = cpos c (st_cur s) /\
  (st_threads s <> [] -> cpos c (st_cur s) <= c_spb c * c_sector c).

Lemma ainv_init c dev b : cursor_wf c b -> ainv c (cpos c b) (init_state dev b).
Proof. intros H. repeat split; cbn; auto. congruence. Qed.

Lemma ainv_step c lo : 1 <= c_sector c -> forall s e s' log,
  ainv c lo s -> step c s e = Some (s', log) -> ainv c lo s'.
Proof.
  intros HS s e s' log (Hwf & Hch & Hend & Hin) Hstep.
  destruct (is_alloc e) eqn:Ha.
  - destruct e as [size| | |]; try discriminate. cbn [step] in Hstep.
    destruct (has_space c (st_cur s) size) eqn:Hhs; [|discriminate].
    apply has_space_fits in Hhs.
    destruct (alloc c (st_cur s) (st_images s) size) as [[[b' im'] w] start] eqn:Hal.
    inversion Hstep; subst; clear Hstep.
    destruct (alloc_spec _ _ _ _ _ _ _ _ HS Hwf Hal) as (Hst & Hpos & Hwf').
    unfold ainv; cbn. repeat split; auto.
    + apply chained_app; auto. cbn. lia.
    + rewrite chain_end_app. cbn. lia.
    + intros _. lia.
  - destruct (step_writer_shape _ _ _ _ _ Hstep Ha) as (k & t & t' & im' & Hk & _ & -> & (Hs & Hz & _)).
    destruct (chained_upd lo _ _ _ _ Hk Hs Hz) as [C1 C2].
    unfold ainv; cbn. repeat split; auto; try lia.
    intros Hne. apply Hin. intros E. rewrite E in Hk. destruct k; discriminate.
Qed.

Lemma run_ainv c dev b0 tr s : 1 <= c_sector c -> cursor_wf c b0 ->
  run c (init_state dev b0) tr = Some s -> ainv c (cpos c b0) s.
Proof. intros HS Hwf. exact (run_invariant c _ (ainv_step c _ HS) tr _ _ (ainv_init c dev b0 Hwf)). Qed.
