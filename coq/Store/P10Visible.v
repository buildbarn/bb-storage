(** C10 — hierarchical CAS: objects are visible exactly under the uploader's
    instance subtree.  Trace-level theorems about the store model (all
    worlds with c_hier = true, all schedules). *)
From Coq Require Import List NArith ZArith Bool Arith Lia ZifyN ZifyNat ZifyBool.
From BBS Require Import Store.Model Store.Basics Store.P08Frame Store.P08Step Store.P08Quarantine Store.P10Inv.
Import ListNotations.
Open Scope N_scope.

(** successful uploads (object, instance) completed during a schedule *)
Fixpoint ups (w : world) (s : state) (es : list op) : list (nat * nat) :=
  match es with
  | [] => []
  | e :: t => completed w s e ++ ups w (fst (step w s e)) t
  end.

Lemma ups_spec w es : forall s o i, In (o, i) (ups w s es) <->
  exists es1 e es2, es = es1 ++ e :: es2 /\ In (o, i) (completed w (exec w s es1) e).
Proof.
  induction es as [|e t IH]; intros s o i; cbn [ups].
  - split; [intros []|]. intros (es1 & e & es2 & E & _). destruct es1; discriminate.
  - rewrite in_app_iff, IH. split.
    + intros [H|(es1 & e' & es2 & -> & H)].
      * exists [], e, t. split; [reflexivity|exact H].
      * exists (e :: es1), e', es2. split; [reflexivity|exact H].
    + intros (es1 & e' & es2 & E & H). destruct es1 as [|e0 es1]; cbn in E; inv E.
      * left. exact H.
      * right. exists es1, e', es2. split; [reflexivity|exact H].
Qed.

Lemma hinv_init c : hinv (init_state c).
Proof. intros tid t []. Qed.

Lemma no_entry_init c k : ~ has_entry (init_state c) k.
Proof. intros [l []]. Qed.

(** the invariant along every schedule, and provenance of every lookup entry *)
Lemma exec_hier w es : c_hier (w_cfg w) = true -> forall s, hinv s ->
  hinv (exec w s es) /\
  forall o i, has_entry (exec w s es) (o, S i) -> has_entry s (o, S i) \/ In (o, i) (ups w s es).
Proof.
  intros Hh. induction es as [|e t IH]; intros s Hi; cbn [exec ups]; [split; [assumption|auto]|].
  destruct (step w s e) as [s1 out] eqn:E. cbn [fst].
  destruct (step_hier _ _ _ _ _ Hh Hi E) as [Hi1 Hk].
  destruct (IH s1 Hi1) as [Hi2 Hk2]. split; [assumption|].
  intros o i H. apply Hk2 in H as [H|H]; [|right; apply in_or_app; right; assumption].
  apply Hk in H as [[H|H]|(o' & i' & Ek & H)].
  - discriminate.
  - left. assumption.
  - inv Ek. right. apply in_or_app. left. assumption.
Qed.

Lemma reachable_hinv w es : c_hier (w_cfg w) = true -> hinv (exec w (init_state (w_cfg w)) es).
Proof. intros Hh. apply exec_hier; [assumption|apply hinv_init]. Qed.

Lemma entry_provenance w es o i : c_hier (w_cfg w) = true ->
  has_entry (exec w (init_state (w_cfg w)) es) (o, S i) -> In (o, i) (ups w (init_state (w_cfg w)) es).
Proof.
  intros Hh H. destruct (exec_hier w es Hh _ (hinv_init (w_cfg w))) as [_ Hk].
  apply Hk in H as [H|H]; [exfalso; eapply no_entry_init, H|assumption].
Qed.

Lemma lookup_key_hier w o j k : c_hier (w_cfg w) = true -> In k (lookup_keys w o j) ->
  exists a, k = (o, S a) /\ In a (ancestors w j).
Proof.
  intros Hh. rewrite hier_lookup_keys by assumption. intros H. apply in_map_iff in H as (a & <- & Ha). eauto.
Qed.

Lemma resolved_lookup_key_uploaded w es o j k l : c_hier (w_cfg w) = true ->
  In k (lookup_keys w o j) -> index_get (exec w (init_state (w_cfg w)) es) k = Some l ->
  exists i, In i (ancestors w j) /\ In (o, i) (ups w (init_state (w_cfg w)) es).
Proof.
  intros Hh Hk Hg. destruct (lookup_key_hier _ _ _ _ Hh Hk) as (a & -> & Ha).
  exists a. split; [assumption|]. apply entry_provenance; [assumption|].
  apply index_get_some in Hg as [Hg _]. exists l. assumption.
Qed.

Lemma visible_get w es tid o j s' : c_hier (w_cfg w) = true ->
  step w (exec w (init_state (w_cfg w)) es) (OGetOpen tid o j) = (s', Parked) ->
  exists i, In i (ancestors w j) /\ In (o, i) (ups w (init_state (w_cfg w)) es).
Proof.
  intros Hh H. apply get_open_parks_outside_quarantine in H as (_ & _ & _ & _ & _ & _ & k & l0 & Hk & Hg & _).
  eapply resolved_lookup_key_uploaded; eassumption.
Qed.

Lemma visible_find_missing w es ds m s' pos o j : c_hier (w_cfg w) = true ->
  step w (exec w (init_state (w_cfg w)) es) (OFindMissing ds) = (s', Missing cOK m) ->
  nth_error ds pos = Some (o, j) -> ~ In pos m ->
  exists i, In i (ancestors w j) /\ In (o, i) (ups w (init_state (w_cfg w)) es).
Proof.
  intros Hh H Hn Hm. destruct (find_missing_present_step _ _ _ _ _ _ _ _ H Hn Hm) as (k & l & Hk & Hg & _).
  eapply resolved_lookup_key_uploaded; eassumption.
Qed.

(** hierarchical composite read: the slicer gets the parent's reader only if
    the parent is visible; otherwise it gets an error buffer, and slicing
    an error buffer never succeeds *)
Lemma visible_composite w es tid o j ch s' uid l r fk : c_hier (w_cfg w) = true ->
  step w (exec w (init_state (w_cfg w)) es) (OGfcStart tid o j ch) = (s', Parked) ->
  thr_get (s_threads s') tid = Some (TGet o uid l r fk) ->
  exists i, In i (ancestors w j) /\ In (o, i) (ups w (init_state (w_cfg w)) es).
Proof.
  intros Hh. unfold step. cbn [may_take_refresh_lock is_corrupt andb].
  destruct (refresh_lock_held _); [discriminate|].
  destruct (thr_get _ tid); [discriminate|]. rewrite Hh.
  destruct (get_open w _ o j) as [[t|e] s1] eqn:E.
  - apply get_open_ok in E as (uid' & l' & r' & fk' & -> & (k & l0 & Hk & Hg) & _ & _).
    intros _ _. eapply resolved_lookup_key_uploaded; eassumption.
  - iinv. rewrite thr_get_set, Nat.eqb_refl. discriminate.
Qed.

Lemma composite_error_never_ok w es tid e slices s' out : c_hier (w_cfg w) = true ->
  thr_get (s_threads (exec w (init_state (w_cfg w)) es)) tid = Some (TGfcErr e) ->
  step w (exec w (init_state (w_cfg w)) es) (OGfcSlice tid slices) = (s', out) ->
  exists c, out = Done c [] /\ c <> 0%Z.
Proof.
  intros Hh Ht. pose proof (reachable_hinv w es Hh _ _ (thr_get_in _ _ _ Ht)) as Hne. cbn in Hne.
  unfold step. cbn [may_take_refresh_lock is_corrupt andb]. rewrite Ht. iinv. eauto.
Qed.

Lemma existing_copy_end w s tid o i acc err s' out :
  thr_get (s_threads s) tid = Some (TPutExisting o i acc) ->
  step w s (OPutEnd tid err) = (s', out) ->
  (out = Done cOK [] /\ err = 0%Z /\ acc = content w o /\
   exists l, index_get s (canonical_key o) = Some l /\ s_index s' = ((o, S i), l) :: s_index s) \/
  ((exists c, out = Done c [] /\ c <> 0%Z) /\ s_index s' = s_index s).
Proof.
  intros Ht. unfold step. cbn [may_take_refresh_lock is_corrupt andb]. rewrite Ht.
  destruct (Z.eqb_spec err 0) as [->|Hne]; cbn [negb].
  2:{ iinv. right. split; [eauto|reflexivity]. }
  destruct (bytes_eqb acc (content w o)) eqn:Eb; cbn [negb].
  2:{ iinv. right. split; [eexists; split; [reflexivity|discriminate]|reflexivity]. }
  apply bytes_eqb_eq in Eb.
  destruct (index_get s (canonical_key o)) as [l|]; iinv.
  - left. repeat split; try reflexivity. exists l. split; reflexivity.
  - right. split; [eexists; split; [reflexivity|discriminate]|reflexivity].
Qed.

Lemma existing_copy_chunk w s tid o i acc data s' out :
  thr_get (s_threads s) tid = Some (TPutExisting o i acc) ->
  step w s (OPutChunk tid data) = (s', out) -> s_index s' = s_index s.
Proof.
  intros Ht. unfold step. cbn [may_take_refresh_lock is_corrupt andb]. rewrite Ht.
  destruct (osize w o <? _); iinv; reflexivity.
Qed.

Lemma never_widens_step w es e s' out o i : c_hier (w_cfg w) = true ->
  let s := exec w (init_state (w_cfg w)) es in
  step w s e = (s', out) ->
  has_entry s' (o, S i) -> has_entry s (o, S i) \/ In (o, i) (completed w s e).
Proof.
  intros Hh s Hs H. destruct (step_hier _ _ _ _ _ Hh (reachable_hinv w es Hh) Hs) as [_ Hk].
  apply Hk in H as [[H|H]|(o' & i' & Ek & H)]; [discriminate|left; assumption|inv Ek; right; assumption].
Qed.

Lemma exec_sfr w es : forall s, exists n, sfr n s (exec w s es).
Proof.
  induction es as [|e t IH]; intros s; cbn [exec]; [exists 0%nat; apply sfr_refl|].
  destruct (step w s e) as [s1 out] eqn:E. cbn [fst]. destruct (IH s1) as [n Hn].
  apply step_sfr in E as [E|[E _]]; eexists; eapply sfr_trans; eassumption.
Qed.

(** a successful upload leaves a lookup entry that is valid at that moment *)
Lemma upload_entry_valid w s e s' out o i : c_hier (w_cfg w) = true -> hinv s ->
  step w s e = (s', out) -> In (o, i) (completed w s e) ->
  exists l, In ((o, S i), l) (s_index s') /\ s_tbr s' <= l_abs l /\ l_abs l < hiM s'.
Proof.
  intros Hh Hi Hs Hc. apply completed_spec in Hc as (tid & err & b & -> & Ho & Ht).
  rewrite Hs in Ho. cbn in Ho. subst out. revert Hs.
  unfold step. cbn [may_take_refresh_lock is_corrupt andb].
  destruct Ht as [(wr & acc & Ht)|(acc & Ht)]; rewrite Ht.
  - destruct (finalize (w_cfg w) s wr _) as [[l|e] s1] eqn:F.
    + apply finalize_ok in F as (_ & Hq & -> & ->). iinv.
      pose proof (unpin_xfr (w_cfg w) s (wr_uid wr)) as X.
      match goal with |- context [index_put_all ?s1 ?ks ?l] => pose proof (index_put_all_ifr s1 ks l) as F; exists l end.
      unfold hiM. cbn [thr_rm upd_threads s_index s_tbr s_released s_blocks l_abs].
      rewrite (if_tbr _ _ F), (if_rel _ _ F), (if_blocks _ _ F), (xf_tbr _ _ X), (xf_rel _ _ X), (xf_len _ _ X).
      split; [|split; [assumption|apply thr_get_in, Hi in Ht; exact Ht]].
      rewrite index_put_all_index. apply in_or_app. left.
      apply -> in_rev. apply in_map_iff. exists (o, S i). split; [reflexivity|].
      unfold finalize_keys. rewrite Hh. right. left. reflexivity.
    + apply finalize_err_code in F. revert F.
      destruct (Z.eqb_spec err 0) as [->|Hne]; intros F HH; inversion HH; exfalso.
      * destruct F; subst; discriminate.
      * apply Hne. assumption.
  - destruct (Z.eqb_spec err 0) as [->|Hne]; cbn [negb]; [|intros HH; inversion HH; exfalso; apply Hne; assumption].
    destruct (bytes_eqb acc (content w o)); cbn [negb]; [|iinv].
    destruct (index_get s (canonical_key o)) as [l|] eqn:G; iinv.
    apply index_get_some in G as [_ G]. unfold loc_valid in G.
    exists l. split; [left; reflexivity|]. unfold hiM. cbn. lia.
Qed.

Lemma get_open_found w s tid o j i l s' out : c_hier (w_cfg w) = true ->
  In i (ancestors w j) -> In ((o, S i), l) (s_index s) -> loc_valid s l = true ->
  step w s (OGetOpen tid o j) = (s', out) -> forall b, out <> Done cNotFound b.
Proof.
  intros Hh Ha Hin Hv Hg b.
  assert (index_get s (o, S i) <> None) as Hne by (eapply index_get_of_valid; eassumption).
  assert (least_specific s (lookup_keys w o j) <> None) as Hls.
  { intros Hn. apply Hne. eapply least_specific_none; [exact Hn|].
    rewrite hier_lookup_keys by assumption. apply (in_map (fun a => (o, S a))). assumption. }
  revert Hg. unfold step. cbn [may_take_refresh_lock is_corrupt andb].
  destruct (thr_get (s_threads s) tid); [iinv; discriminate|].
  destruct (get_open w s o j) as [[t|e'] s1] eqn:E; iinv; [discriminate|].
  apply get_open_err in E as [_ E]. intros Hx. inv Hx. apply Hls, E. reflexivity.
Qed.

Lemma readable_after_upload w s e sU out es2 o i j tid s' outG : c_hier (w_cfg w) = true -> hinv s ->
  step w s e = (sU, out) -> In (o, i) (completed w s e) ->
  s_tbr (exec w sU es2) = s_tbr sU ->
  In i (ancestors w j) ->
  step w (exec w sU es2) (OGetOpen tid o j) = (s', outG) ->
  forall b, outG <> Done cNotFound b.
Proof.
  intros Hh Hi Hs Hc Ht Ha Hg.
  destruct (upload_entry_valid _ _ _ _ _ _ _ Hh Hi Hs Hc) as (l & Hin & Hq & Hhi).
  destruct (exec_sfr w es2 sU) as [n [[nw Ei] _ _ _ Hm]].
  apply (get_open_found w (exec w sU es2) tid o j i l s' outG Hh Ha); [| |exact Hg].
  - rewrite Ei. apply in_or_app. right. assumption.
  - unfold loc_valid. unfold hiM in *. lia.
Qed.

Lemma readable_under_every_descendant_trace w es1 e es2 o i j tid s' outG : c_hier (w_cfg w) = true ->
  let s := exec w (init_state (w_cfg w)) es1 in
  let sU := fst (step w s e) in
  In (o, i) (completed w s e) ->
  s_tbr (exec w sU es2) = s_tbr sU ->
  In i (ancestors w j) ->
  step w (exec w sU es2) (OGetOpen tid o j) = (s', outG) ->
  forall b, outG <> Done cNotFound b.
Proof.
  intros Hh s sU Hc Ht Ha Hg. destruct (step w s e) as [sU' out] eqn:E.
  eapply (readable_after_upload w s e sU' out); try eassumption. apply reachable_hinv, Hh.
Qed.
