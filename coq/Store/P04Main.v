(** C04 proofs: the invariant holds in every reachable state; the
    allocator theorems (no reuse while referenced, no leak, fuel suffices). *)
From Coq Require Import List NArith ZArith Bool Arith Lia Permutation.
From Coq Require Import ZifyN ZifyNat ZifyBool.
From BBS Require Import Store.Model Store.Wf Run.RStore Store.P04Base Store.P04Prim Store.P04Fbs
  Store.P04Step.
Import ListNotations.
Local Open Scope nat_scope.

Lemma cnt_seq a n r : cnt (seq a n) r = if (Nat.leb a r && Nat.ltb r (a + n))%bool then 1 else 0.
Proof.
  destruct (Nat.leb a r && Nat.ltb r (a + n))%bool eqn:E.
  - apply andb_true_iff in E. destruct E as [E1 E2]. apply Nat.leb_le in E1. apply Nat.ltb_lt in E2.
    unfold cnt. apply (proj1 (NoDup_count_occ' Nat.eq_dec (seq a n))); [apply seq_NoDup|].
    apply in_seq. lia.
  - apply cnt_notin. rewrite in_seq. intros [H1 H2].
    apply andb_false_iff in E. destruct E as [E|E]; [apply Nat.leb_gt in E | apply Nat.ltb_ge in E]; lia.
Qed.

Lemma Inv_init w : Inv w (init_state (w_cfg w)).
Proof.
  constructor.
  - constructor; unfold uids; cbn [init_state s_blocks s_zombies s_threads s_next_uid map app all_refs flat_map].
    + constructor.
    + intros u [].
    + intros r. unfold rc, rcl. cbn [init_state s_blocks s_zombies s_free s_next_region map].
      rewrite !cnt_nil, cnt_seq. cbn [Nat.leb andb plus]. unfold in_memory.
      destruct (Nat.eqb (c_nblocks (w_cfg w)) 0) eqn:E.
      * apply Nat.eqb_eq in E. rewrite E. cbn. lia.
      * reflexivity.
    + intros b [].
    + intros b [].
    + intros u [].
  - constructor; cbn [init_state s_blocks s_old s_cur s_new s_released s_tbr length]; try lia.
  - constructor.
  - intros tid t [].
Qed.

Definition reach (w : world) (es : list op) : state := fst (run w (init_state (w_cfg w)) es).

Lemma run_fst_cons w s e t : fst (run w s (e :: t)) = fst (run w (fst (step w s e)) t).
Proof.
  cbn [run]. destruct (step w s e) as [s1 o]. cbn [fst]. destruct (run w s1 t) as [s2 os]. reflexivity.
Qed.

Lemma wf_world_wfc w : wf_world w = true -> wfc (w_cfg w).
Proof. intros Wf. apply wf_config_wfc. unfold wf_world in Wf. apply andb_true_iff in Wf. apply Wf. Qed.

Lemma Inv_run w : wf_world w = true -> forall es s, Inv w s -> Inv w (fst (run w s es)).
Proof.
  intros Wf. induction es as [|e t IH]; intros s H; [exact H|].
  rewrite run_fst_cons. apply IH. apply (step_ok w (wf_world_wfc w Wf) s H e).
Qed.

Theorem Inv_reach w es : wf_world w = true -> Inv w (reach w es).
Proof. intros Wf. apply Inv_run; [exact Wf | apply Inv_init]. Qed.

Lemma RegInv_nodup c s : RegInv c s -> NoDup (regions s).
Proof.
  intros H. apply (NoDup_count_occ Nat.eq_dec). intros r. fold (cnt (regions s) r). rewrite rc_regions.
  specialize (H r). destruct (in_memory c).
  - destruct (Nat.ltb r (s_next_region s)); lia.
  - destruct (Nat.ltb r (c_nblocks c)); lia.
Qed.

Lemma RegInv_all c s : RegInv c s -> in_memory c = false ->
  forall r, In r (regions s) <-> In r (seq 0 (c_nblocks c)).
Proof.
  intros H Em r. specialize (H r). rewrite Em in H. rewrite cnt_In, rc_regions, in_seq.
  destruct (Nat.ltb r (c_nblocks c)) eqn:E; [apply Nat.ltb_lt in E | apply Nat.ltb_ge in E]; lia.
Qed.

Lemma RegInv_perm c s : RegInv c s -> in_memory c = false -> Permutation (regions s) (seq 0 (c_nblocks c)).
Proof.
  intros H Em. apply NoDup_Permutation; [eapply RegInv_nodup; eauto | apply seq_NoDup | apply RegInv_all; assumption].
Qed.

Lemma RegInv_mem c s : RegInv c s -> in_memory c = true -> forall r, In r (regions s) -> r < s_next_region s.
Proof.
  intros H Em r Hr. specialize (H r). rewrite Em in H. apply cnt_In in Hr. rewrite rc_regions in Hr.
  destruct (Nat.ltb r (s_next_region s)) eqn:E; [apply Nat.ltb_lt in E; exact E | lia].
Qed.

Theorem Inv_allocator w s : Inv w s ->
  let c := w_cfg w in
  NoDup (regions s) /\
  (in_memory c = false -> Permutation (regions s) (seq 0 (c_nblocks c))) /\
  (in_memory c = true -> forall r, In r (regions s) -> r < s_next_region s) /\
  (forall b, In b (s_blocks s) -> b_use b = 1 + nrefs c s (b_uid b)) /\
  (forall z, In z (s_zombies s) -> b_use z = nrefs c s (b_uid z) /\ 1 <= b_use z) /\
  (forall tid t uid, In (tid, t) (s_threads s) -> In uid (refs c t) -> In uid (uids s)) /\
  NoDup (uids s) /\ (forall u, In u (uids s) -> u < s_next_uid s).
Proof.
  intros [[A1 A2 A3 A4 A5 A6] _ _ _] c.
  split; [eapply RegInv_nodup; eauto|].
  split; [apply RegInv_perm; exact A3|].
  split; [apply RegInv_mem; exact A3|].
  split; [exact A4|]. split; [exact A5|]. split; [|split; assumption].
  intros tid t uid H1 H2. apply A6. eapply in_all_refs; eassumption.
Qed.

Theorem AInv_referenced c s R uid : AInv c s R -> In uid R ->
  (exists b, In b (s_blocks s) /\ b_uid b = uid /\ 2 <= b_use b) \/
  (exists z, In z (s_zombies s) /\ b_uid z = uid /\ 1 <= b_use z).
Proof.
  intros [A1 A2 A3 A4 A5 A6] Hin. pose proof (proj1 (cnt_In _ _) Hin) as Hc.
  apply A6 in Hin. unfold uids in Hin. apply in_app_or in Hin. destruct Hin as [Hin|Hin].
  - left. apply in_map_iff in Hin. destruct Hin as [b [E Hb]]. exists b. split; [exact Hb|]. split; [exact E|].
    rewrite (A4 _ Hb), E. lia.
  - right. apply in_map_iff in Hin. destruct Hin as [z [E Hz]]. exists z. split; [exact Hz|]. split; [exact E|].
    apply (A5 _ Hz).
Qed.

Theorem Inv_idle w s : Inv w s -> s_threads s = [] ->
  s_zombies s = [] /\
  (in_memory (w_cfg w) = false -> length (s_free s) + length (s_blocks s) = c_nblocks (w_cfg w)).
Proof.
  intros [[A1 A2 A3 A4 A5 A6] _ _ _] Hq.
  assert (Z : s_zombies s = []).
  { destruct (s_zombies s) as [|z zs] eqn:E; [reflexivity|]. exfalso.
    destruct (A5 z (or_introl eq_refl)) as [E1 E2]. rewrite Hq in E1. cbn in E1. lia. }
  split; [exact Z|]. intros Em.
  pose proof (Permutation_length (RegInv_perm _ s A3 Em)) as L. unfold regions in L.
  rewrite Z in L. cbn [map app] in L. rewrite app_length, map_length, seq_length in L. lia.
Qed.

Lemma rcl_in l x : In x l -> 1 <= rcl l (b_region x).
Proof. intros H. unfold rcl. apply cnt_In. apply in_map. exact H. Qed.

Lemma find_block_in s uid b : find_block s uid = Some b -> In b (allb s) /\ b_uid b = uid.
Proof.
  unfold find_block. destruct (find_uid uid (s_blocks s)) as [b0|] eqn:E.
  - intros H. inversion H; subst. apply find_uid_some in E. split; [apply in_allb_l; apply E | apply E].
  - intros H. apply find_uid_some in H. split; [apply in_allb_r; apply H | apply H].
Qed.

Lemma regions_allb_nodup s : NoDup (regions s) -> NoDup (map b_region (allb s)).
Proof.
  unfold regions, allb. rewrite map_app. rewrite app_assoc. apply NoDup_app_l.
Qed.

Theorem step_no_reuse w s e : wfc (w_cfg w) -> Inv w s ->
  let c := w_cfg w in let s' := fst (step w s e) in
  forall b', In b' (allb s') -> s_next_uid s <= b_uid b' ->
  forall tid t uid blk, In (tid, t) (s_threads s) -> In uid (refs c t) ->
    find_block s uid = Some blk -> b_region blk <> b_region b'.
Proof.
  intros W HI0 c s' b' Hb' Hnew tid t uid blk Ht Hu Hf.
  pose proof (step_ok w W s HI0 e) as (I1 & _ & _ & _ & (E1 & E2 & _) & Hincl).
  fold s' in I1, E1, E2, Hincl. cbn [fst] in *.
  destruct HI0 as [[A1 A2 _ _ _ _] _ _ _]. destruct I1 as [[B1 B2 B3 _ _ B6] _ _ _].
  destruct (find_block_in _ _ _ Hf) as [Hblk Ublk].
  assert (Hlt : uid < s_next_uid s).
  { apply A2. rewrite uids_allb, <- Ublk. apply in_map. exact Hblk. }
  assert (Hgrow : s_next_uid s < s_next_uid s').
  { assert (b_uid b' < s_next_uid s'); [|lia]. apply B2. rewrite uids_allb. apply in_map. exact Hb'. }
  assert (Hin : In uid (uids s')) by (apply B6; eapply in_all_refs; [apply (Hincl Hgrow); exact Ht | exact Hu]).
  rewrite uids_allb in Hin. apply in_map_iff in Hin. destruct Hin as [blk1 [U1 H1]].
  destruct (E2 blk1 H1) as [b0 [X1 [X2 X3]]]; [lia|].
  assert (b0 = blk).
  { apply (NoDup_map_inj b_uid (allb s)); auto; [rewrite <- uids_allb; exact A1 | congruence]. }
  subst b0. intros Heq.
  assert (blk1 = b').
  { apply (NoDup_map_inj b_region (allb s')); auto; [|congruence].
    apply regions_allb_nodup. eapply RegInv_nodup; eauto. }
  subst blk1. lia.
Qed.

Theorem new_block_fresh_region c s R b s' :
  AInv c s R -> new_block c s = Some (b, s') ->
  forall x, In x (allb s) -> b_region x <> b_region b.
Proof.
  intros [_ _ A3 _ _ _] E x Hx Heq. unfold new_block in E.
  assert (G : rcl (s_blocks s) (b_region x) + rcl (s_zombies s) (b_region x) >= 1).
  { unfold allb in Hx. apply in_app_or in Hx. destruct Hx as [Hx|Hx]; apply rcl_in in Hx; lia. }
  specialize (A3 (b_region x)). unfold rc in A3.
  destruct (in_memory c).
  - inversion E; subst. cbn [b_region] in Heq. rewrite Heq in A3.
    rewrite Nat.ltb_irrefl in A3. rewrite Heq in G. lia.
  - destruct (s_free s) as [|r rest] eqn:EF; [discriminate|]. inversion E; subst. cbn [b_region] in Heq.
    rewrite cnt_cons, Heq, Nat.eqb_refl in A3. rewrite Heq in G.
    destruct (Nat.ltb r (c_nblocks c)); lia.
Qed.

(** for every state satisfying the allocator and counter invariants (all
    reachable states, and all the intermediate states at which the model calls
    these functions) *)
Theorem fuel_suffices_inv w s R : wfc (w_cfg w) -> AInv (w_cfg w) s R -> CInv (w_cfg w) s ->
  let c := w_cfg w in
  (forall size e, fst (find_block_with_space c s size) = Err e -> e = cInvalidArgument \/ e = cUnavailable) /\
  (forall size idx, fst (find_block_with_space c s size) = Ok idx ->
     has_space c (snd (find_block_with_space c s size)) idx size = true) /\
  (forall size e, fst (ocn_put c s size) = Err e -> e = cInvalidArgument \/ e = cUnavailable) /\
  (forall o l fk e, loc_valid s l = true -> fst (open_with_refresh w s o l fk) = Err e -> (0 < e)%Z) /\
  (forall o i e, fst (get_open w s o i) = Err e -> (0 < e)%Z) /\
  (forall o i e, fst (fm_refresh_one w s o i) = Err e -> (0 < e)%Z) /\
  (forall ds e, fst (find_missing w s ds) = Err e -> (0 < e)%Z) /\
  (forall o i e, fst (put_start w s o i) = Err e -> (0 < e)%Z).
Proof.
  intros W A C c.
  assert (H : HI c s s R) by (split; [exact A | split; [exact C | apply Fr_refl]]).
  repeat split.
  - intros size e E. pose proof (find_block_with_space_ok c s s R size W H) as [_ X]. rewrite E in X. exact X.
  - intros size idx E. pose proof (find_block_with_space_ok c s s R size W H) as [_ X]. rewrite E in X. exact X.
  - intros size e E. pose proof (ocn_put_ok c s s R size W H) as X. rewrite E in X. apply X.
  - intros o l fk e V E. pose proof (open_with_refresh_ok w s s R o l fk W H V) as X. rewrite E in X. apply X.
  - intros o i e E. pose proof (get_open_ok w s s R o i W H) as X. rewrite E in X. apply X.
  - intros o i e E. pose proof (fm_refresh_one_ok w s s R o i W H) as [_ X]. rewrite E in X. exact X.
  - intros ds e E. pose proof (find_missing_ok w s s R ds W H) as [_ X]. rewrite E in X. exact X.
  - intros o i e E. pose proof (put_start_ok w s s R o i W H) as X. rewrite E in X. apply X.
Qed.

Theorem Inv_fuel w s : wfc (w_cfg w) -> Inv w s ->
  let c := w_cfg w in
  (forall size, fst (find_block_with_space c s size) <> Err (-1)%Z) /\
  (forall size, fst (ocn_put c s size) <> Err (-2)%Z /\ fst (ocn_put c s size) <> Err (-1)%Z) /\
  (forall o l fk, loc_valid s l = true -> fst (open_with_refresh w s o l fk) <> Err (-3)%Z) /\
  (forall o i e, fst (get_open w s o i) = Err e -> (0 < e)%Z) /\
  (forall o i, fst (fm_refresh_one w s o i) <> Err (-3)%Z) /\
  (forall o i e, fst (fm_refresh_one w s o i) = Err e -> (0 < e)%Z) /\
  (forall ds e, fst (find_missing w s ds) = Err e -> (0 < e)%Z) /\
  (forall o i e, fst (put_start w s o i) = Err e -> (0 < e)%Z) /\
  (forall e, out_ok e (snd (step w s e))).
Proof.
  intros W HI0 c. pose proof HI0 as [A C _ _].
  destruct (fuel_suffices_inv w s _ W A C) as (F1 & F2 & F3 & F4 & F5 & F6 & F7 & F8).
  fold c in F1, F2, F3.
  split; [intros size E; destruct (F1 size _ E) as [X|X]; discriminate|].
  split; [intros size; split; intros E; destruct (F3 size _ E) as [X|X]; discriminate|].
  split; [intros o l fk V E; specialize (F4 o l fk _ V E); lia|].
  split; [exact F5|].
  split; [intros o i E; specialize (F6 o i _ E); lia|].
  split; [exact F6|]. split; [exact F7|]. split; [exact F8|].
  intros e. apply (step_ok w W s HI0 e).
Qed.

(** the states before and after every event of [run_states] are reachable
    states (of a prefix of the schedule) *)
Lemma run_states_reach_gen w : forall es s x, In x (RStore.run_states w s es) ->
  exists k, fst (fst x) = fst (run w s (firstn k es)) /\ snd (fst x) = fst (run w s (firstn (S k) es)).
Proof.
  induction es as [|e t IH]; intros s x; cbn [RStore.run_states]; [intros []|].
  destruct (step w s e) as [s1 o] eqn:ES. intros [H|H].
  - subst x. exists 0. cbn [fst snd firstn]. split; [reflexivity|].
    rewrite run_fst_cons, ES. reflexivity.
  - destruct (IH s1 x H) as [k [E1 E2]]. exists (S k).
    rewrite !firstn_cons, !run_fst_cons, ES. cbn [fst]. split; assumption.
Qed.

Theorem run_states_reach w es x : In x (RStore.run_states w (init_state (w_cfg w)) es) ->
  exists k, fst (fst x) = reach w (firstn k es) /\ snd (fst x) = reach w (firstn (S k) es).
Proof. apply run_states_reach_gen. Qed.
