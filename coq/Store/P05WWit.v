(** C05, idempotence: witnesses.  Clauses 4 and 7 of the R05 monitor
    ARE reported on the model when the model's own [wrote] is used as the
    write count (findings F8 and F12; both schedules replay on the real
    implementation: corpus/C05/f8-..., f12-...), and non-vacuity instances
    for the idempotence theorems. *)
From Coq Require Import List NArith ZArith Bool Arith Lia.
From BBS Require Import Common.Sx Store.Model Store.Wf Store.WfTids Run.RStore Run.R01 Run.R05.
From BBS Require Import Store.P05Cnt Store.P05Frame Store.P05Ops Store.P05Step Store.P05Surv Store.P05Mon
                        Store.P05Inv Store.P05Main Store.P05Touch Store.P05Wit.
Import ListNotations.
Open Scope Z_scope.

(** Witness F8 (corpus/C05/f8-repeated-multidigest-findmissing-writes.case):
    block device with 6 regions, old=2, cur=0, new=1, one object per block.
    Objects 0 and 1 sit in old blocks; the first FindMissing copies both, the
    copy of object 1 rotates the block holding the fresh copy of object 0
    into the old region; the immediately repeated FindMissing copies object
    0 again. *)
Definition cfgF8 : config :=
  {| c_bs := 4%N; c_old := 2; c_cur := 0; c_new := 1; c_mutable := false; c_nblocks := 6;
     c_hier := false; c_inst_keys := false; c_validate := false |}.
Definition wF8 : world := world_of cfgF8.
Definition esF8 : list op :=
  put 1 0 ++ put 2 1 ++ put 3 2 ++ [OFindMissing [(0, 0); (1, 0)]%nat; OFindMissing [(0, 0); (1, 0)]%nat].

Example witnessF8_wellformed :
  wf_world wF8 = true /\ wf_ops wF8 [] esF8 = true /\ wf_tids esF8 = true /\
  dec_world (enc_inp wF8 esF8) = wF8 /\ dec_ops (enc_inp wF8 esF8) = esF8.
Proof. vm_compute. repeat split. Qed.
Example witnessF8_integrity : integ wF8 (init_state (w_cfg wF8)) esF8.
Proof. vm_compute. repeat split. Qed.
(** both calls report both objects present; both calls wrote *)
Example witnessF8_run :
  map (fun x => match x with (e, (s0, s1, mo)) => (mo, wrote wF8 s0 e s1) end) (skipn 9 (run_x wF8 esF8))
  = [(Missing cOK [], true); (Missing cOK [], true)].
Proof. vm_compute. reflexivity. Qed.
Example clause4_refuted : mon05 (enc_inp wF8 esF8) (run05 (enc_inp wF8 esF8)) = [4].
Proof. vm_compute. reflexivity. Qed.

(** Witness F12 (corpus/C05/f12-repeat-get-after-held-reader-writes.case):
    block device with 6 regions, old=2, cur=1, new=1, block size 16, one
    16-byte object.  The first Get's reader is held open while two uploads
    allocate blocks; the read completes; the immediately repeated Get copies
    the object again. *)
Definition objF12 : list N := [1; 196; 32; 185; 129; 74; 208; 18; 230; 91; 149; 179; 53; 249; 205; 224]%N.
Definition cfgF12 : config :=
  {| c_bs := 16%N; c_old := 2; c_cur := 1; c_new := 1; c_mutable := false; c_nblocks := 6;
     c_hier := false; c_inst_keys := false; c_validate := false |}.
Definition wF12 : world := {| w_cfg := cfgF12; w_objs := [objF12]; w_anc := [[0%nat]] |}.
Definition esF12 : list op :=
  [OPutStart 4 0 0; OPutChunk 4 objF12; OPutEnd 4 0; OGetOpen 8 0 0; OPutStart 9 0 0; OPutStart 0 0 0;
   OGetConsume 8; OGetOpen 13 0 0; OGetConsume 13].

Example witnessF12_wellformed :
  wf_world wF12 = true /\ wf_ops wF12 [] esF12 = true /\ wf_tids esF12 = true /\
  dec_world (enc_inp wF12 esF12) = wF12 /\ dec_ops (enc_inp wF12 esF12) = esF12.
Proof. vm_compute. repeat split. Qed.
Example witnessF12_integrity : integ wF12 (init_state (w_cfg wF12)) esF12.
Proof. vm_compute. repeat split. Qed.
(** the repeated Get-open (event 7) wrote; blocks were allocated while the
    first reader was open (2 push-backs when it was obtained, 3 before the repeat) *)
Example witnessF12_run :
  map (fun x => match x with (e, (s0, s1, mo)) => (s_pushbacks s1, wrote wF12 s0 e s1) end) (skipn 3 (run_x wF12 esF12))
  = [(2%nat, false); (2%nat, false); (3%nat, false); (3%nat, false); (4%nat, true); (4%nat, false)].
Proof. vm_compute. reflexivity. Qed.
Example clause7_refuted : mon05 (enc_inp wF12 esF12) (run05 (enc_inp wF12 esF12)) = [7].
Proof. vm_compute. reflexivity. Qed.
