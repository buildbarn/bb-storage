(** Store/SectorWriterCommute.v — steps of two different writers that share no
    shared-sector image and whose device writes hit disjoint byte ranges commute. *)
From Coq Require Import List Arith ZArith Bool Lia.
From BBS Require Import Store.SectorWriter Store.SectorWriterProofs.
Import ListNotations.

Definition ids_of (w : writer) : list nat :=
  (match w_first w with Some i => [i] | None => [] end) ++
  (match w_last w with Some i => [i] | None => [] end).

Definition ev_thread (e : event) : option nat :=
  match e with EWrite k _ | EFlush k | EAbandon k => Some k | EAlloc _ => None end.

Definition disjoint_writes (l1 l2 : list dwrite) : Prop :=
  forall w1 w2, In w1 l1 -> In w2 l2 ->
    fst w1 + length (snd w1) <= fst w2 \/ fst w2 + length (snd w2) <= fst w1.

Lemma write_at_comm : forall d o1 s1 o2 s2,
  o1 + length s1 <= o2 \/ o2 + length s2 <= o1 ->
  write_at (write_at d o1 s1) o2 s2 = write_at (write_at d o2 s2) o1 s1.
Proof.
  induction d as [|x d IH]; intros o1 s1 o2 s2 H; [reflexivity|].
  destruct o1 as [|o1], o2 as [|o2].
  - destruct s1 as [|b1 s1], s2 as [|b2 s2]; try reflexivity.
    simpl in H; lia.
  - destruct s1 as [|b1 s1]; [reflexivity|].
    simpl. f_equal. apply IH. simpl in H. lia.
  - destruct s2 as [|b2 s2]; [reflexivity|].
    simpl. f_equal. apply IH. simpl in H. lia.
  - simpl. f_equal. apply IH. lia.
Qed.

Lemma apply_writes_cons : forall d w l,
  apply_writes d (w :: l) = apply_writes (write_at d (fst w) (snd w)) l.
Proof. reflexivity. Qed.

Lemma apply_writes_write_at : forall lb d o s,
  (forall w2, In w2 lb ->
     o + length s <= fst w2 \/ fst w2 + length (snd w2) <= o) ->
  apply_writes (write_at d o s) lb = write_at (apply_writes d lb) o s.
Proof.
  induction lb as [|w lb IH]; intros d o s H; [reflexivity|].
  rewrite !apply_writes_cons.
  rewrite write_at_comm by (apply H; left; reflexivity).
  apply IH. intros w2 Hin. apply H. right. exact Hin.
Qed.

Lemma apply_writes_comm : forall la lb d,
  disjoint_writes la lb ->
  apply_writes (apply_writes d la) lb = apply_writes (apply_writes d lb) la.
Proof.
  induction la as [|w la IH]; intros lb d H; [reflexivity|].
  rewrite !apply_writes_cons.
  rewrite IH by (intros w1 w2 H1 H2; apply H; [right; exact H1 | exact H2]).
  rewrite apply_writes_write_at; [reflexivity|].
  intros w2 H2. apply H; [left; reflexivity | exact H2].
Qed.

Lemma upd_comm : forall T (l : list T) i j x y,
  i <> j -> upd (upd l i x) j y = upd (upd l j y) i x.
Proof.
  induction l as [|h l IH]; intros i j x y H; [destruct i, j; reflexivity|].
  destruct i as [|i], j as [|j]; simpl; try reflexivity; try congruence.
  f_equal. apply IH. congruence.
Qed.

Lemma img_data_set_img_ne images id d id' : id <> id' -> img_data (set_img images id d) id' = img_data images id'.
Proof. intros H. unfold img_data, set_img. rewrite nth_upd_ne by exact H. reflexivity. Qed.

Lemma set_img_comm : forall images id id' d d',
  id <> id' ->
  set_img (set_img images id' d') id d = set_img (set_img images id d) id' d'.
Proof.
  intros. unfold set_img. rewrite !nth_upd_ne by congruence.
  apply upd_comm. congruence.
Qed.

Definition set_opt (images : list image) (u : option (nat * list byte)) : list image :=
  match u with Some (id, d) => set_img images id d | None => images end.

Definition upd_in (u : option (nat * list byte)) (l : list nat) : Prop :=
  match u with Some (id, _) => In id l | None => True end.
Definition upd_notin (u : option (nat * list byte)) (l : list nat) : Prop :=
  match u with Some (id, _) => ~ In id l | None => True end.

Lemma set_opt_comm : forall images u v l1 l2,
  upd_in u l1 -> upd_in v l2 -> (forall i, In i l1 -> ~ In i l2) ->
  set_opt (set_opt images u) v = set_opt (set_opt images v) u.
Proof.
  intros images [[i d]|] [[j e]|] l1 l2 Hu Hv H; simpl in *; try reflexivity.
  apply set_img_comm. intro; subst. exact (H _ Hu Hv).
Qed.

Lemma in_ids_first : forall w id, w_first w = Some id -> In id (ids_of w).
Proof. intros w id H. unfold ids_of. rewrite H. left. reflexivity. Qed.

Lemma in_ids_last : forall w id, w_last w = Some id -> In id (ids_of w).
Proof.
  intros w id H. unfold ids_of. rewrite H. apply in_or_app. right. left. reflexivity.
Qed.

Lemma write_frame : forall c images w p id' d,
  ~ In id' (ids_of w) ->
  write c (set_img images id' d) w p =
  let '(im, w', log) := write c images w p in (set_img im id' d, w', log).
Proof.
  intros c images w p id' d H. unfold write.
  destruct (w_first w) as [id|] eqn:E.
  - assert (Hne : id <> id') by (intro; subst; apply H, in_ids_first, E).
    rewrite img_data_set_img_ne by congruence.
    cbv zeta.
    destruct (_ <? _).
    + rewrite set_img_comm by exact Hne. reflexivity.
    + destruct (write_rest _ _ _) as [w2 log].
      rewrite set_img_comm by exact Hne. reflexivity.
  - destruct (write_rest _ _ _) as [w2 log]. reflexivity.
Qed.

Lemma flush_frame : forall c images w id' d,
  ~ In id' (ids_of w) ->
  flush c (set_img images id' d) w =
  let '(im, log) := flush c images w in (set_img im id' d, log).
Proof.
  intros c images w id' d H. unfold flush.
  destruct (w_last w) as [id|] eqn:E; [|reflexivity].
  assert (Hne : id <> id') by (intro; subst; apply H, in_ids_last, E).
  rewrite img_data_set_img_ne by congruence.
  cbv zeta. rewrite set_img_comm by exact Hne. reflexivity.
Qed.

Lemma write_images c images w p :
  fst (fst (write c images w p)) =
  match w_first w with
  | Some id => set_img images id (write_at (img_data images id) (w_firstoff w) p)
  | None => images
  end.
Proof.
  unfold write. destruct (w_first w); [|destruct (write_rest c w p); reflexivity].
  dif; [reflexivity|]. destruct (write_rest c _ _); reflexivity.
Qed.

Lemma flush_images c images w :
  fst (flush c images w) =
  match w_last w with
  | Some id => set_img images id (write_at (img_data images id) 0 (w_partial w))
  | None => images
  end.
Proof. unfold flush. destruct (w_last w); reflexivity. Qed.

Lemma write_effect : forall c images w p,
  exists u, fst (fst (write c images w p)) = set_opt images u /\ upd_in u (ids_of w).
Proof.
  intros c images w p. rewrite write_images. destruct (w_first w) as [id|] eqn:E.
  - eexists (Some (id, _)). split; [reflexivity|]. apply in_ids_first, E.
  - exists None. split; [reflexivity|exact I].
Qed.

Lemma flush_effect : forall c images w,
  exists u, fst (flush c images w) = set_opt images u /\ upd_in u (ids_of w).
Proof.
  intros c images w. rewrite flush_images. destruct (w_last w) as [id|] eqn:E.
  - eexists (Some (id, _)). split; [reflexivity|]. apply in_ids_last, E.
  - exists None. split; [reflexivity|exact I].
Qed.

Lemma step_local c s e k t s' l :
  ev_thread e = Some k -> nth_error (st_threads s) k = Some t -> step c s e = Some (s', l) ->
  exists t' ua, s' = set_thread s k t' (set_opt (st_images s) ua) l /\ upd_in ua (ids_of (t_w t)) /\
    forall s2 u, nth_error (st_threads s2) k = Some t -> st_images s2 = set_opt (st_images s) u ->
      upd_notin u (ids_of (t_w t)) ->
      step c s2 e = Some (set_thread s2 k t' (set_opt (set_opt (st_images s) ua) u) l, l).
Proof.
  intros He Hk Hs. destruct e as [n|k' ch|k'|k']; cbn in He; inversion He; subst k'; clear He.
  - destruct (proj1 (step_write_iff _ _ _ _ _ _ _ Hk) Hs) as (Hact & Hn & -> & ->).
    destruct (write_effect c (st_images s) (t_w t) ch) as (ua & Eu & Hua).
    do 2 eexists. split; [rewrite Eu; reflexivity|]. split; [exact Hua|].
    intros s2 u Hk2 Ei Hnu. apply (step_write_iff _ _ _ _ _ _ _ Hk2). rewrite Ei, <- Eu.
    destruct u as [[id d]|]; cbn [set_opt]; [rewrite (write_frame c _ _ ch id d Hnu)|];
      destruct (write c (st_images s) (t_w t) ch) as [[im w'] lg]; auto.
  - destruct (proj1 (step_flush_iff _ _ _ _ _ _ Hk) Hs) as (Hact & Hn & -> & ->).
    destruct (flush_effect c (st_images s) (t_w t)) as (ua & Eu & Hua).
    do 2 eexists. split; [rewrite Eu; reflexivity|]. split; [exact Hua|].
    intros s2 u Hk2 Ei Hnu. apply (step_flush_iff _ _ _ _ _ _ Hk2). rewrite Ei, <- Eu.
    destruct u as [[id d]|]; cbn [set_opt]; [rewrite (flush_frame c _ _ id d Hnu)|];
      destruct (flush c (st_images s) (t_w t)) as [im lg]; auto.
  - destruct (proj1 (step_abandon_iff _ _ _ _ _ _ Hk) Hs) as (Hact & -> & ->).
    exists {| t_w := t_w t; t_start := t_start t; t_size := t_size t; t_data := t_data t;
              t_first0 := t_first0 t; t_status := Abandoned |}, None.
    split; [reflexivity|]. split; [exact I|].
    intros s2 u Hk2 Ei Hnu. apply (step_abandon_iff _ _ _ _ _ _ Hk2). rewrite Ei. auto.
Qed.

(* Steps of two different writers that touch no common shared-sector image and whose
   device writes hit disjoint byte ranges commute: same final state, and each step issues
   the same device writes in either order. *)
Theorem private_write_commutes_gen : forall c s ea eb ka kb ta tb sa la sb lb,
  ev_thread ea = Some ka -> ev_thread eb = Some kb -> ka <> kb ->
  nth_error (st_threads s) ka = Some ta -> nth_error (st_threads s) kb = Some tb ->
  (forall i, In i (ids_of (t_w ta)) -> ~ In i (ids_of (t_w tb))) ->
  step c s ea = Some (sa, la) -> step c s eb = Some (sb, lb) ->
  disjoint_writes la lb ->
  exists sab, step c sa eb = Some (sab, lb) /\ step c sb ea = Some (sab, la).
Proof.
  intros c s ea eb ka kb ta tb sa la sb lb Ea Eb Hk Ta Tb Hids Sa Sb Hdis.
  destruct (step_local _ _ _ _ _ _ _ Ea Ta Sa) as (ta' & ua & -> & Hua & La).
  destruct (step_local _ _ _ _ _ _ _ Eb Tb Sb) as (tb' & ub & -> & Hub & Lb).
  assert (Hna : upd_notin ua (ids_of (t_w tb))).
  { destruct ua as [[i d]|]; simpl in *; [apply Hids, Hua | exact I]. }
  assert (Hnb : upd_notin ub (ids_of (t_w ta))).
  { destruct ub as [[i d]|]; simpl in *; [|exact I].
    intro Hin. exact (Hids _ Hin Hub). }
  eexists. split.
  - apply Lb; [cbn [set_thread st_threads]; rewrite nth_error_upd_ne by congruence; exact Tb|reflexivity|exact Hna].
  - rewrite (La _ ub) by
      first [cbn [set_thread st_threads]; rewrite nth_error_upd_ne by congruence; exact Ta|reflexivity|exact Hnb].
    do 2 f_equal. unfold set_thread. cbn [st_dev st_cur st_images st_threads]. f_equal.
    + symmetry. apply apply_writes_comm. exact Hdis.
    + apply (set_opt_comm _ _ _ _ _ Hua Hub). exact Hids.
    + apply upd_comm. congruence.
Qed.

Print Assumptions private_write_commutes_gen.
