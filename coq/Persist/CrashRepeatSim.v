(** Persist/CrashRepeatSim.v — a life on ANY base medium is simulated, step by
    step, by a run in which every Robin-Hood displacement [IwMove from to] of a
    finalizer section is replaced by a second write [IwNew to] of the
    finalizer's OWN record ("shadow run").  The two runs agree on everything
    but the CONTENT of index records (and the volatile table): system state,
    uploads, allocator, ghost seed tables, and the I/O log entry by entry
    (same positions, same data / sync / directory entries, index entries with
    the same slot and seed).

    The shadow run never reads the table, so it never touches a record of an
    earlier life: all first-life invariants (CrashAllocProofs.cinv,
    CrashReuseProofs.rinv / kinv, …) hold for it from a restart on any medium
    whose state file restores duplicate-free seeds and regions.  Every
    record-independent consequence transfers to the real run — in particular
    [region_reuse_any_base]: a region is handed out again only after a state
    file without the block is durable, for a life that starts on non-empty
    media (the case left open by the first-life development).
    Stdlib only; no axioms. *)
From Coq Require Import List NArith ZArith Bool Arith Lia Permutation.
From BBS Require Import Persist.PBL Persist.Syncer Persist.SyncerProofs
                        Persist.Crash Persist.CrashLts.
From BBS Require Import Persist.CrashReuseProofs.
Import ListNotations.

Local Notation log := (list (io irec)).

Definition tiw (w : iw) : iw := match w with IwNew s => IwNew s | IwMove _ to => IwNew to end.
Definition tev (e : cev) : cev :=
  match e with CFinalize k seed ws => CFinalize k seed (map tiw ws) | _ => e end.

Definition erel (e e' : io irec) : Prop :=
  match e, e' with
  | IoIndex s r, IoIndex s' r' => s = s' /\ r_seed r = r_seed r'
  | IoIndex _ _, _ => False
  | _, IoIndex _ _ => False
  | _, _ => e = e'
  end.

Lemma erel_refl e : erel e e.
Proof. destruct e; cbn; auto. Qed.

Lemma erel_inv e e' : erel e e' ->
  e = e' \/ exists s r r', e = IoIndex s r /\ e' = IoIndex s r' /\ r_seed r = r_seed r'.
Proof.
  destruct e, e'; cbn; intros H; try contradiction; auto. destruct H as [-> H]. right. eauto 6.
Qed.

(** [c'] is [c] with another log and table; the logs agree entry by entry *)
Definition sim (c c' : cst) : Prop :=
  c' = with_index c (cs_log c') (cs_tbl c') /\ Forall2 erel (cs_log c) (cs_log c').

Lemma F2_app_refl (l l' extra : log) : Forall2 erel l l' -> Forall2 erel (l ++ extra) (l' ++ extra).
Proof.
  intros H. apply Forall2_app; [exact H|]. induction extra; constructor; auto using erel_refl.
Qed.

Lemma F2_len {X Y} (R : X -> Y -> Prop) l l' : Forall2 R l l' -> length l = length l'.
Proof. induction 1; cbn; auto. Qed.

Lemma F2_nth {X Y} (R : X -> Y -> Prop) l l' : Forall2 R l l' ->
  forall q x, nth_error l q = Some x -> exists y, nth_error l' q = Some y /\ R x y.
Proof.
  induction 1 as [|a b l l' Hab F IH]; intros [|q] x Hq; cbn in *; try discriminate.
  - inv Hq. eauto.
  - eauto.
Qed.

Lemma sys_step_frame cfg c l t e c1 : sys_step cfg c e = Some c1 ->
  sys_step cfg (with_index c l t) e = Some (with_index c1 l t) /\ cs_log c1 = cs_log c.
Proof.
  unfold sys_step. cbn [cs_sys with_index]. destruct (step cfg (cs_sys c) e) as [[s'|]|]; try discriminate.
  intros H; inv H. split; reflexivity.
Qed.

Lemma cstep_frame g cfg c l t e c1 :
  (forall k s ws, e <> CFinalize k s ws) -> length l = length (cs_log c) ->
  cstep g cfg c e = Some c1 ->
  exists extra, cs_log c1 = cs_log c ++ extra /\
    cstep g cfg (with_index c l t) e = Some (with_index c1 (l ++ extra) t).
Proof.
  intros Hne Hlen H. destruct e; cbn [cstep] in H |- *; cbn [cs_sys cs_free cs_locs cs_cur cs_held cs_ups cs_log cs_dirpc
     cs_seeds cs_nclosed cs_closed_at cs_nsynced with_index].
  - (* push *)
    destruct (closedForWriting (s_pbl (cs_sys c))) eqn:Ec.
    { destruct (sys_step_frame _ _ l t _ _ H) as [F E]. exists []. rewrite !app_nil_r. auto. }
    destruct (cs_free c) as [|l0 fr] eqn:Ef.
    { destruct (sys_step_frame _ _ l t _ _ H) as [F E]. exists []. rewrite !app_nil_r. auto. }
    destruct (sys_step cfg c (EPushBack (Some l0))) as [c0|] eqn:Ess; [|discriminate]. inv H.
    destruct (sys_step_frame _ _ l t _ _ Ess) as [F E]. rewrite F. exists []. rewrite !app_nil_r.
    split; [exact E|]. reflexivity.
  - (* pop *)
    destruct (sys_step_frame _ _ l t _ _ H) as [F E]. exists []. rewrite !app_nil_r. auto.
  - (* putstart *)
    destruct (size <? 0)%Z; [discriminate|].
    destruct (sys_step cfg c (EPutStart index size)) as [c0|] eqn:Ess; [|discriminate].
    destruct (sys_step_frame _ _ l t _ _ Ess) as [F E]. rewrite F.
    destruct (closedForWriting (s_pbl (cs_sys c))).
    + inv H. exists []. rewrite !app_nil_r. split; [exact E|]. reflexivity.
    + destruct (nth_error (cs_cur c) _) as [off|]; [|discriminate].
      destruct (nth_error (cs_locs c) _) as [l1|]; [|discriminate].
      destruct (_ <=? _)%Z; [|discriminate]. inv H. exists []. rewrite !app_nil_r.
      split; [exact E|]. reflexivity.
  - (* data *)
    destruct (nth_error (cs_ups c) k) as [u|]; [|discriminate].
    destruct (up_state u); try discriminate.
    destruct (up_loc (cs_locs c) u) as [l1|]; [|discriminate].
    destruct (_ && _)%bool; [|discriminate]. inv H. eexists. split; reflexivity.
  - (* writer done *)
    destruct (nth_error (cs_ups c) k) as [u|]; [|discriminate].
    destruct (up_state u); try discriminate.
    destruct (ok && _)%bool; [discriminate|].
    destruct (up_loc (cs_locs c) u) as [l1|]; [|inv H; exists []; rewrite !app_nil_r; split; reflexivity].
    destruct (_ && _)%bool; inv H; exists []; rewrite !app_nil_r; split; reflexivity.
  - (* finalize *)
    exfalso. eapply Hne. reflexivity.
  - (* tick *)
    destruct (sys_step_frame _ _ l t _ _ H) as [F E]. exists []. rewrite !app_nil_r. auto.
  - (* cancel *)
    destruct (sys_step_frame _ _ l t _ _ H) as [F E]. exists []. rewrite !app_nil_r. auto.
  - (* thread *)
    unfold thread_at_getstate in *.
    destruct (_ && _ && _)%bool; [discriminate|].
    destruct (sys_step cfg c (EStep t0 a)) as [c0|] eqn:Ess; [|discriminate].
    destruct (sys_step_frame _ _ l t _ _ Ess) as [F E]. rewrite F.
    apply A.sys_step_inv in Ess. destruct Ess as [s' [Hs ->]].
    cbn [cs_sys with_sys with_index cs_locs cs_ups cs_free cs_held cs_cur cs_log cs_seeds] in H |- *. cbv zeta in H |- *.
    destruct (release_regions _ _ _ _ _) as [fr hd].
    destruct t0.
    + inv H. exists []. rewrite !app_nil_r.
      match goal with |- context [if ?b then with_dirpc _ 0 else _] => destruct b end; split; reflexivity.
    + destruct (p_notifies (cs_sys c)); inv H; rewrite ?Hlen;
        (exists (if p_syncing (cs_sys c) then [IoSyncEnd (a_ok a)] else if p_syncing s' then [IoSyncBegin] else []));
        match goal with |- context [if ?b then with_dirpc _ 0 else _] => destruct b end;
        destruct (p_syncing (cs_sys c)); try destruct (p_syncing s');
        rewrite ?app_nil_r; split; reflexivity.
  - (* dir *)
    destruct (writing (cs_sys c)) as [st|]; [|discriminate].
    destruct (_ <? _); [|discriminate]. inv H. eexists. split; reflexivity.
Qed.

Lemma mk_rec_any p i key off size up r i' key' off' size' up' :
  mk_rec p i key off size up = Some r ->
  exists r', mk_rec p i' key' off' size' up' = Some r' /\ r_seed r' = r_seed r.
Proof.
  unfold mk_rec, index_to_ref. destruct (length (epochSeeds p)) as [|le]; [discriminate|].
  destruct (nth_error (epochLast p) le); [|discriminate].
  destruct (nth_error (epochSeeds p) le); [|discriminate].
  intros H; inv H. eexists. split; reflexivity.
Qed.

Lemma do_writes_sim p k u ws : up_abs u <? totalReleased p = false ->
  forall lg tbl lg' tbl' l t, do_writes p k u ws lg tbl = Some (lg', tbl') -> Forall2 erel lg l ->
  exists l' t', do_writes p k u (map tiw ws) l t = Some (l', t') /\ Forall2 erel lg' l'.
Proof.
  intros Hab. induction ws as [|w ws IH]; intros lg tbl lg' tbl' l t H F; cbn [do_writes map] in *.
  - inv H. eauto.
  - destruct w as [slot|from to]; cbn [tiw].
    + rewrite Hab in *.
      destruct (mk_rec p (up_abs u - totalReleased p) (up_key u) (up_off u) (up_size u) k) as [r|]; [|discriminate].
      eapply IH; [exact H|]. apply Forall2_app; [exact F|]. constructor; [cbn; auto|constructor].
    + rewrite Hab.
      destruct (slot_get tbl from None) as [r0|]; [|discriminate].
      destruct (live_index p r0) as [i|]; [|discriminate].
      destruct (mk_rec p i (r_key r0) (r_off r0) (r_size r0) (r_up r0)) as [r|] eqn:Er; [|discriminate].
      destruct (mk_rec_any _ _ _ _ _ _ _ (up_abs u - totalReleased p) (up_key u) (up_off u) (up_size u) k Er)
        as [r' [Er' Es]].
      rewrite Er'. eapply IH; [exact H|]. apply Forall2_app; [exact F|]. constructor; [cbn; auto|constructor].
Qed.

Lemma cstep_fin_sim g cfg c ch k seed ws c1 :
  Forall2 A.tok_rel (A.abss c) (s_uploads (cs_sys c)) ->
  sim c ch -> cstep g cfg c (CFinalize k seed ws) = Some c1 ->
  exists ch1, cstep g cfg ch (CFinalize k seed (map tiw ws)) = Some ch1 /\ sim c1 ch1.
Proof.
  intros Htok [Ec F] H. rewrite Ec. set (l := cs_log ch) in *. set (t := cs_tbl ch) in *. clearbody l t.
  cbn [cstep] in H |- *.
  cbn [cs_sys cs_ups cs_log cs_tbl cs_seeds cs_elast with_index] in *.
  destruct (nth_error (cs_ups c) k) as [u|] eqn:Eu; [|discriminate].
  destruct (nth_error (s_uploads (cs_sys c)) k) as [[[tok size]|]|] eqn:Et; try discriminate.
  destruct (up_state u) as [|ok|] eqn:Eus; try discriminate.
  change (fresh (with_index c l t) seed) with (fresh c seed).
  destruct (negb (fresh c seed)); [discriminate|].
  destruct (put_finalize tok (if ok then Some (up_off u) else None) size seed (s_pbl (cs_sys c)))
    as [[p' fr]|] eqn:Epf; [|discriminate].
  destruct (sys_step cfg c (EFinalize k (if ok then Some (up_off u) else None) seed)) as [c0|] eqn:Ess;
    [|discriminate].
  destruct (sys_step_frame _ _ l t _ _ Ess) as [Fs Es]. rewrite Fs.
  apply A.sys_step_inv in Ess. destruct Ess as [s1 [Hs ->]].
  destruct fr as [off| | |].
  2-4: destruct ws; [|discriminate]; inv H; cbn [map];
    (eexists; split; [reflexivity|]);
    destruct (length (epochSeeds (s_pbl (cs_sys c))) <? length (epochSeeds p')); (split; [reflexivity|exact F]).
  destruct (do_writes p' k u ws (cs_log c) (cs_tbl c)) as [[lg' tbl']|] eqn:Edw; [|discriminate]. inv H.
  assert (Hab : up_abs u <? totalReleased p' = false).
  { destruct (A.put_finalize_spec _ _ _ _ _ _ _ Epf) as [_ Hn|abs off0 Htk _ Hle _ T1 _ _ _ _ _]; [exfalso; eapply Hn; eauto|].
    subst tok. eapply (A.Forall2_nth _ _ _ k (up_abs u)) in Htok; [| |exact Et].
    - cbn in Htok. subst abs. apply Nat.ltb_ge. lia.
    - unfold A.abss. apply map_nth_error. exact Eu. }
  destruct (do_writes_sim _ _ _ _ Hab _ _ _ _ l t Edw F) as (l' & t' & Edw' & F').
  cbn [cs_log cs_tbl with_sys with_index] in *. rewrite Edw'.
  eexists. split; [reflexivity|].
  destruct (length (epochSeeds (s_pbl (cs_sys c))) <? length (epochSeeds p')); (split; [reflexivity|exact F']).
Qed.

Lemma with_index_len c c' : sim c c' -> length (cs_log c') = length (cs_log c).
Proof. intros [_ F]. symmetry. eapply F2_len; eauto. Qed.

Theorem sim_step g cfg c ch e c1 :
  Forall2 A.tok_rel (A.abss c) (s_uploads (cs_sys c)) ->
  sim c ch -> cstep g cfg c e = Some c1 ->
  exists ch1, cstep g cfg ch (tev e) = Some ch1 /\ sim c1 ch1.
Proof.
  intros Htok S H.
  assert (Hother : (forall k s ws, e <> CFinalize k s ws) -> exists ch1, cstep g cfg ch e = Some ch1 /\ sim c1 ch1).
  { intros Hne. pose proof (with_index_len _ _ S) as Hlen. destruct S as [Ec F].
    destruct (cstep_frame g cfg c (cs_log ch) (cs_tbl ch) e c1 Hne Hlen H) as (extra & E1 & E2).
    rewrite <- Ec in E2. eexists. split; [exact E2|]. split.
    - reflexivity.
    - cbn [cs_log with_index]. rewrite E1. apply F2_app_refl. exact F. }
  destruct e; try (apply Hother; intros; discriminate).
  cbn [tev]. eapply cstep_fin_sim; eauto.
Qed.

Lemma sim_fields c ch : sim c ch ->
  cs_sys ch = cs_sys c /\ cs_ups ch = cs_ups c /\ cs_locs ch = cs_locs c /\ cs_cur ch = cs_cur c /\
  cs_free ch = cs_free c /\ cs_held ch = cs_held c /\ cs_dirpc ch = cs_dirpc c /\
  cs_seeds ch = cs_seeds c /\ cs_elast ch = cs_elast c /\ cs_old ch = cs_old c.
Proof. intros [-> _]. cbn. repeat split. Qed.

(** the data / state-write / directory entries of the two logs coincide *)
Lemma sim_nth_noindex c ch q e : sim c ch -> (forall s r, e <> IoIndex s r) ->
  (nth_error (cs_log c) q = Some e <-> nth_error (cs_log ch) q = Some e).
Proof.
  intros [_ F] Hni. split; intros H.
  - destruct (F2_nth _ _ _ F _ _ H) as (y & Hy & R).
    destruct (erel_inv _ _ R) as [<-|(s & r & r' & -> & _)]; [exact Hy|]. exfalso. eapply Hni. reflexivity.
  - destruct (F2_nth_r _ _ _ F _ _ H) as (x & Hx & R).
    destruct (erel_inv _ _ R) as [->|(s & r & r' & _ & -> & _)]; [exact Hx|]. exfalso. eapply Hni. reflexivity.
Qed.

Lemma erel_firstn (l l' : log) n : Forall2 erel l l' -> Forall2 erel (firstn n l) (firstn n l').
Proof. intros F. revert n. induction F as [|a b l l' Hab F IH]; intros [|n]; cbn; constructor; auto. Qed.

Lemma sim_firstn c ch n : sim c ch -> Forall2 erel (firstn n (cs_log c)) (firstn n (cs_log ch)).
Proof. intros [_ F]. apply erel_firstn. exact F. Qed.

Lemma erel_dstep st e e' : erel e e' -> dstep st e = dstep st e'.
Proof.
  intros H. destruct (erel_inv _ _ H) as [->|(s & r & r' & -> & -> & _)]; [reflexivity|].
  destruct st as [[[pos pc] wc] lw]. reflexivity.
Qed.

Lemma erel_dscan (l l' : log) : Forall2 erel l l' -> dscan l = dscan l'.
Proof.
  intros F0. unfold dscan. generalize (0, 0, 0, @None nat). induction F0 as [|a b l l' Hab F IH]; intros st; cbn; [reflexivity|].
  rewrite (erel_dstep st _ _ Hab). apply IH.
Qed.

Lemma erel_shaped (l l' : log) : Forall2 erel l l' -> shaped l' -> shaped l.
Proof.
  intros F S q e Hq. destruct (F2_nth _ _ _ F _ _ Hq) as (y & Hy & R).
  unfold dpc. rewrite (erel_dscan _ _ (erel_firstn _ _ q F)). specialize (S _ _ Hy). unfold dpc in S.
  destruct (erel_inv _ _ R) as [->|(s & r & r' & -> & _)]; [exact S|exact Logic.I].
Qed.
