(** Persist/LiveEpoch.v — the epoch ID: the oldest epoch ID stored in a written
    state plus the position of the object's epoch among the state's seeds is
    the EpochID that BlockIndexToBlockReference handed out for the object when
    its finalizer returned (uint32 arithmetic). *)
From Coq Require Import List NArith ZArith Bool Arith Lia.
From BBS Require Import Persist.PBL Persist.PBLProofs Persist.Syncer Persist.SyncerProofs
  Persist.LiveActs Persist.LiveCover.
Import ListNotations.

(** oldestEpochID (mod 2^32) after [d] epochs were removed since it was [oid0] *)
Definition eid_inv (oid0 : N) (d : nat) (p : pbl) : Prop :=
  u32 (oldestEpochID p) = u32 (oid0 + N.of_nat d).

Lemma act_eid oid0 d a p p' : apply_act a p = Ok p' -> eid_inv oid0 d p -> eid_inv oid0 (d + popc a p) p'.
Proof.
  intros Ha E. unfold eid_inv in *. destruct (act_fields _ _ _ Ha) as (_ & _ & _ & _ & _ & -> & _).
  destruct a; try (cbn [popc]; rewrite Nat.add_0_r; exact E).
  rewrite u32_idem, <- u32_add_l, E, u32_add_l, Nat2N.inj_add, N.add_assoc. reflexivity.
Qed.

Lemma run_eid cfg oid0 tr : forall s d s', eid_inv oid0 d (s_pbl s) -> run cfg s tr = Some (Ok s') ->
  eid_inv oid0 (d + popsum cfg s tr) (s_pbl s').
Proof.
  induction tr as [|e tr IH]; intros s d s' E H; cbn in *.
  - inversion H; subst. rewrite Nat.add_0_r. exact E.
  - destruct (step cfg s e) as [[s1|]|] eqn:Es; try discriminate.
    rewrite Nat.add_assoc. eapply IH; [|exact H]. eapply act_eid; [eapply step_act; eauto|exact E].
Qed.

Lemma step_eid cfg oid0 d s e s' : eid_inv oid0 d (s_pbl s) -> step cfg s e = Some (Ok s') ->
  eid_inv oid0 (d + popc (act_of s e) (s_pbl s)) (s_pbl s').
Proof. intros E H. eapply act_eid; [eapply step_act; eauto|exact E]. Qed.

(** Same schedule shape as [upload_covered_seg].  [index_to_ref] on the block
    list right after the finalizer gives the reference (EpochID, _) and hash
    seed handed to the caller; that EpochID is the written state's oldest epoch
    ID plus the position (epoch index - d) at which [covers] finds the seed. *)
Theorem upload_covered_epoch_id cfg s1 k blk seed s1' abs size off p' trA s2 e2 s2' trB s3 e3 s3' trC s4 e4 s4' t :
  linv s1 ->
  step cfg s1 (EFinalize k blk seed) = Some (Ok s1') ->
  nth_error (s_uploads s1) k = Some (Some (PutAt abs, size)) ->
  put_finalize (PutAt abs) blk size seed (s_pbl s1) = Ok (p', FinOk off) ->
  run cfg s1' trA = Some (Ok s2) -> step cfg s2 e2 = Some (Ok s2') -> sync_starts s2 e2 = true ->
  run cfg s2' trB = Some (Ok s3) -> step cfg s3 e3 = Some (Ok s3') -> sync_completes s3 e3 = true ->
  run cfg s3' trC = Some (Ok s4) -> step cfg s4 e4 = Some (Ok s4') -> act_of s4 e4 = AGetState t ->
  let o := obj_of (s_pbl s1) p' abs (off + size) in
  let d := popsum cfg s1' trA + popsum cfg s2' trB + popsum cfg s3' trC in
  abs < totalReleased (s_pbl s4) \/
  exists st ref, written_state s4' t = Some st
    /\ index_to_ref (abs - totalReleased p') p' = Ok (ref, o_seed o)
    /\ d <= o_epoch o
    /\ fst ref = u32 (fst st + N.of_nat (o_epoch o - d)).
Proof.
  intros I1 Hs1 Hu Hf HA H2 Hst HB H3 Hco HC H4 Hg o d.
  destruct (upload_covered_seg cfg s1 k blk seed s1' abs size off p' trA s2 e2 s2' trB s3 e3 s3' trC s4 e4 s4' t
              I1 Hs1 Hu Hf HA H2 Hst HB H3 Hco HC H4 Hg) as [Hr|(st & Hw & _ & Hde)]; [left; exact Hr|right].
  fold o d in Hde. pose proof (fin_step _ _ _ _ _ _ _ _ _ _ Hs1 Hu Hf) as <-.
  assert (popc (act_of s2 e2) (s_pbl s2) = 0 /\ popc (act_of s3 e3) (s_pbl s3) = 0) as (Hp2 & Hp3).
  { unfold sync_starts in Hst. unfold sync_completes in Hco.
    destruct (act_of s2 e2); try discriminate; destruct (act_of s3 e3); try discriminate; auto. }
  pose proof (fin_tracked _ _ _ _ _ _ _ (proj1 (proj1 I1)) Hf) as T0. fold o in T0.
  (* oldest epoch id *)
  assert (eid_inv (oldestEpochID (s_pbl s1')) 0 (s_pbl s1')) as E0 by (unfold eid_inv; rewrite N.add_0_r; reflexivity).
  pose proof (run_eid _ _ _ _ _ _ E0 HA) as EA. pose proof (step_eid _ _ _ _ _ _ EA H2) as E2. rewrite Hp2, Nat.add_0_r in E2.
  pose proof (run_eid _ _ _ _ _ _ E2 HB) as EB. pose proof (step_eid _ _ _ _ _ _ EB H3) as E3. rewrite Hp3, Nat.add_0_r in E3.
  pose proof (run_eid _ _ _ _ _ _ E3 HC) as EC. cbn [Nat.add] in EC. fold d in EC.
  destruct (getstate_step _ _ _ _ _ H4 Hg) as [p4 [st' [Hgs [Hw' _]]]]. rewrite Hw in Hw'. injection Hw' as <-.
  destruct (gps_fields _ _ _ Hgs) as (_ & _ & _ & _ & _ & _ & Hfst & _).
  (* the reference handed out at acknowledgement time *)
  destruct T0 as [T0|(_ & _ & b & la & _ & _ & _ & Hsd & Hla & _)];
    [exfalso; destruct (fin_cases _ _ _ _ _ _ _ Hf) as [[_ Hn]|(a0 & o0 & bu & Ht & _ & _ & _ & Hge & _ & _ & _ & _ & _ & Ft & _)];
       [eapply Hn; reflexivity|inversion Ht; subst a0; rewrite Ft in T0; cbn in T0; lia]|].
  rewrite Nat.sub_0_r in Hsd, Hla. unfold o, obj_of in Hsd, Hla. cbn [o_epoch o_seed] in Hsd, Hla.
  assert (0 < length (epochSeeds (s_pbl s1'))) as Hpos.
  { assert (length (epochSeeds (s_pbl s1')) - 1 < length (epochSeeds (s_pbl s1'))); [apply nth_error_Some; congruence|lia]. }
  exists st. unfold index_to_ref.
  destruct (length (epochSeeds (s_pbl s1'))) as [|n] eqn:El; [lia|].
  replace (S n - 1) with n in * by lia. rewrite Hla, Hsd.
  assert (o_seed o = nth n (epochSeeds (s_pbl s1')) 0%N) as Hos.
  { unfold o, obj_of. cbn [o_seed]. rewrite El. replace (S n - 1) with n by lia. reflexivity. }
  rewrite Hos.
  eexists. split; [exact Hw|]. split; [reflexivity|]. split; [exact Hde|].
  cbn [fst]. unfold o, obj_of. cbn [o_epoch]. rewrite El. replace (S n - 1) with n by lia.
  rewrite Hfst, <- (u32_add_l (oldestEpochID (s_pbl s4))). unfold eid_inv in EC.
  rewrite EC, u32_add_l, <- N.add_assoc, <- Nat2N.inj_add.
  replace (d + (n - d)) with n; [reflexivity|]. unfold o, obj_of in Hde. cbn [o_epoch] in Hde. rewrite El in Hde. lia.
Qed.
