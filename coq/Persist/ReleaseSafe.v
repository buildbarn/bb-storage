(** Persist/ReleaseSafe.v — proofs of the C04P theorems (Props/C04P.v): an
    invariant over the executed history of the combined PersistentBlockList +
    PeriodicSyncer transition system, extended one step at a time.

    [hrun]: histories built by appending one executed step; [run_hrun]: the
    trace of a schedule is such a history.  [J h s]: the invariant relating
    the history [h] to the current state [s]:
      - [Jp]:   releasedLog ++ blocksToRelease are exactly the popped blocks,
                in PopFront order (absolute index = position);
      - [Jcov]: every Release()d block is covered by a completed state write
                that started after its PopFront and omits it;
      - [Jw]:   a loop inside WritePersistentState (in flight / returned nil)
                started that write at a known step [ig]; no other write started
                since; the blocks popped before [ig] are exactly those with
                absolute index < |releasedLog| + blocksReleasing;
      - [Jn]:   NotifyPersistentStateWritten of a write releases every block
                popped before the write started. *)
From Coq Require Import List NArith ZArith Bool Arith Lia.
From BBS Require Import Persist.PBL Persist.PBLProofs Persist.Syncer Persist.SyncerProofs
  Persist.LiveActs Persist.LiveCover Persist.LiveRelease Persist.LiveFair Persist.ReleaseSafeDefs.
Import ListNotations.
Local Open Scope nat_scope.

Lemma nth_snoc_lt {A} (h : list A) x k : k < length h -> nth_error (h ++ [x]) k = nth_error h k.
Proof. intros H. apply nth_error_app1. exact H. Qed.

Lemma nth_snoc_eq {A} (h : list A) x : nth_error (h ++ [x]) (length h) = Some x.
Proof. rewrite nth_error_app2 by lia. rewrite Nat.sub_diag. reflexivity. Qed.

Lemma nth_snoc_inv {A} (h : list A) x k y : nth_error (h ++ [x]) k = Some y ->
  (k < length h /\ nth_error h k = Some y) \/ (k = length h /\ y = x).
Proof.
  intros H. destruct (Nat.lt_ge_cases k (length h)) as [Hlt|Hge].
  - left. split; [exact Hlt|]. rewrite nth_error_app1 in H by exact Hlt. exact H.
  - right. rewrite nth_error_app2 in H by exact Hge.
    destruct (k - length h) as [|d] eqn:Ed.
    + cbn in H. inversion H. split; [lia|reflexivity].
    + cbn in H. destruct d; discriminate.
Qed.

Lemma nth_bound {A} (h : list A) k y : nth_error h k = Some y -> k < length h.
Proof. intros H. apply nth_error_Some. congruence. Qed.

Lemma nth_app_firstn {A} (l1 l2 : list A) r i : i < length l1 + r ->
  nth_error (l1 ++ firstn r l2) i = nth_error (l1 ++ l2) i.
Proof.
  intros H. destruct (Nat.lt_ge_cases i (length l1)) as [Hlt|Hge].
  - rewrite !nth_error_app1 by exact Hlt. reflexivity.
  - rewrite !nth_error_app2 by exact Hge. apply nth_error_firstn_lt. lia.
Qed.

Lemma run_snoc cfg tr : forall s0 e s, run cfg s0 (tr ++ [e]) = Some (Ok s) ->
  exists s1, run cfg s0 tr = Some (Ok s1) /\ step cfg s1 e = Some (Ok s).
Proof.
  induction tr as [|e0 tr IH]; intros s0 e s H.
  - cbn [app run] in H. destruct (step cfg s0 e) as [[s1|]|] eqn:Es; try discriminate.
    injection H as <-. exists s0. split; [reflexivity|exact Es].
  - cbn [app run] in *. destruct (step cfg s0 e0) as [[s1|]|]; try discriminate. apply IH. exact H.
Qed.

Lemma trace_app cfg tr1 : forall s0 s1 tr2, run cfg s0 tr1 = Some (Ok s1) ->
  trace cfg s0 (tr1 ++ tr2) = trace cfg s0 tr1 ++ trace cfg s1 tr2.
Proof.
  induction tr1 as [|e tr1 IH]; intros s0 s1 tr2 H.
  - cbn in H. injection H as <-. reflexivity.
  - cbn [app run trace] in *. destruct (step cfg s0 e) as [[s'|]|]; try discriminate.
    cbn [app]. f_equal. apply IH. exact H.
Qed.

Inductive hrun (cfg : config) (s0 : sys) : hist -> sys -> Prop :=
| hr_nil : hrun cfg s0 [] s0
| hr_snoc h s e s' : hrun cfg s0 h s -> step cfg s e = Some (Ok s') ->
    hrun cfg s0 (h ++ [(s, e, s')]) s'.

Lemma run_hrun cfg s0 tr : forall s, run cfg s0 tr = Some (Ok s) -> hrun cfg s0 (trace cfg s0 tr) s.
Proof.
  induction tr as [|e tr IH] using rev_ind; intros s H.
  - cbn in *. injection H as <-. constructor.
  - destruct (run_snoc _ _ _ _ _ H) as [s1 [H1 H2]].
    rewrite (trace_app _ _ _ _ [e] H1). cbn [trace]. rewrite H2. apply hr_snoc; auto.
Qed.

Section Snoc.
Variables (h : hist) (x : sys * event * sys).

Lemma pop_at_mono ip i l : pop_at h ip i l -> pop_at (h ++ [x]) ip i l.
Proof.
  intros (a & b & fb & rest & H & R). exists a, b, fb, rest.
  split; [apply nth_error_app_some; exact H|exact R].
Qed.
Lemma pop_at_bound ip i l : pop_at h ip i l -> ip < length h.
Proof. intros (a & b & fb & rest & H & _). eapply nth_bound; eauto. Qed.
Lemma pop_at_lt ip i l : pop_at (h ++ [x]) ip i l -> ip < length h -> pop_at h ip i l.
Proof.
  intros (a & b & fb & rest & H & R) Hlt. rewrite nth_snoc_lt in H by exact Hlt.
  exists a, b, fb, rest. auto.
Qed.

Lemma ws_mono ig t st : write_starts_at h ig t st -> write_starts_at (h ++ [x]) ig t st.
Proof.
  intros (a & e & b & H & R). exists a, e, b. split; [apply nth_error_app_some; exact H|exact R].
Qed.
Lemma ws_bound ig t st : write_starts_at h ig t st -> ig < length h.
Proof. intros (a & e & b & H & _). eapply nth_bound; eauto. Qed.
Lemma ws_lt ig t st : write_starts_at (h ++ [x]) ig t st -> ig < length h -> write_starts_at h ig t st.
Proof.
  intros (a & e & b & H & R) Hlt. rewrite nth_snoc_lt in H by exact Hlt. exists a, e, b. auto.
Qed.

Lemma wc_mono iw t st : write_completes_at h iw t st -> write_completes_at (h ++ [x]) iw t st.
Proof.
  intros (a & e & b & H & R). exists a, e, b. split; [apply nth_error_app_some; exact H|exact R].
Qed.
Lemma wc_bound iw t st : write_completes_at h iw t st -> iw < length h.
Proof. intros (a & e & b & H & _). eapply nth_bound; eauto. Qed.

Lemma so_mono ig st i : state_omits h ig st i -> state_omits (h ++ [x]) ig st i.
Proof.
  intros (a & e & b & H & R). exists a, e, b. split; [apply nth_error_app_some; exact H|exact R].
Qed.

Lemma not_lt iz t : notified_at (h ++ [x]) iz t -> iz < length h -> notified_at h iz t.
Proof.
  intros (a & e & b & H & R) Hlt. rewrite nth_snoc_lt in H by exact Hlt. exists a, e, b. auto.
Qed.

Lemma nsb_mono lo hi : hi <= length h -> no_start_between h lo hi -> no_start_between (h ++ [x]) lo hi.
Proof.
  intros Hle H k a e b H1 H2 Hn. rewrite nth_snoc_lt in Hn by lia. eapply H; eauto.
Qed.
Lemma nsb_lt lo hi : no_start_between (h ++ [x]) lo hi -> no_start_between h lo hi.
Proof.
  intros H k a e b H1 H2 Hn. eapply H; eauto. apply nth_error_app_some. exact Hn.
Qed.

Lemma covered_mono i l : covered h i l -> covered (h ++ [x]) i l.
Proof.
  intros (ip & ig & iw & t & st & H1 & H2 & H3 & H4 & H5 & H6 & H7).
  exists ip, ig, iw, t, st. pose proof (wc_bound _ _ _ H7) as Hb.
  splits; auto using pop_at_mono, ws_mono, so_mono, wc_mono.
  apply nsb_mono; [lia|exact H6].
Qed.
End Snoc.

Lemma pop_at_snoc h s e s' ip i l : pop_at (h ++ [(s, e, s')]) ip i l ->
  pop_at h ip i l \/ (ip = length h /\ e = EPopFront /\ totalReleased (s_pbl s) = i
                      /\ exists fb rest, blocks (s_pbl s) = fb :: rest /\ b_loc fb = l).
Proof.
  intros (a & b & fb & rest & H & Ht & Hb & Hl).
  destruct (nth_snoc_inv _ _ _ _ H) as [[_ H']|[-> [= <- <- <-]]]; [left; exists a, b, fb, rest; auto|right; eauto 8].
Qed.

Lemma act_pop_event s e : act_of s e = APop -> e = EPopFront.
Proof.
  destruct e as [alloc| |index size|k blk seed|d| |t' a]; cbn [act_of]; try discriminate; auto.
  - destruct (nth_error _ _) as [[[tok sz]|]|]; discriminate.
  - destruct t'.
    + destruct (s_r s) as [| |w]; try discriminate. destruct w; cbn; discriminate.
    + destruct (s_p s) as [| | | | | | | |k w|]; try discriminate. destruct w; cbn; discriminate.
Qed.

(** loop [t]'s WritePersistentState(st) call started at step [ig]; nothing
    else started a state write since; [m] = totalBlocksReleased at that
    moment: exactly the blocks with absolute index < m were popped before *)
Definition flight (h : hist) (m : nat) (t : tid) (ig : nat) (st : pstate) : Prop :=
  write_starts_at h ig t st
  /\ (exists a e b, nth_error h ig = Some (a, e, b) /\ totalReleased (s_pbl a) = m
        /\ forall j x, nth_error (snd st) j = Some x ->
             exists bb, nth_error (blocks (s_pbl a)) j = Some bb /\ bs_loc x = b_loc bb)
  /\ (forall k a e b, ig < k -> nth_error h k = Some (a, e, b) -> is_getstate (act_of a e) = false)
  /\ (forall ip i l, pop_at h ip i l -> (ip < ig <-> i < m)).

Lemma flight_snoc h m t ig st s e s' : flight h m t ig st ->
  is_getstate (act_of s e) = false -> (e = EPopFront -> m <= totalReleased (s_pbl s)) ->
  flight (h ++ [(s, e, s')]) m t ig st.
Proof.
  intros (F1 & (a & e0 & b & F2 & F3) & F4 & F5) Hng Hpop.
  pose proof (nth_bound _ _ _ F2) as Hig.
  split; [apply ws_mono; exact F1|].
  split; [exists a, e0, b; split; [apply nth_error_app_some; exact F2|exact F3]|].
  split.
  - intros k a1 e1 b1 Hk Hn. destruct (nth_snoc_inv _ _ _ _ Hn) as [[Hlt Hn']|[-> Heq]].
    + eapply F4; eauto.
    + inversion Heq; subst. exact Hng.
  - intros ip i l Hp. destruct (pop_at_snoc _ _ _ _ _ _ _ Hp) as [Hp0|(-> & He & Ht & _)]; [exact (F5 _ _ _ Hp0)|].
    specialize (Hpop He). split; intros; lia.
Qed.

Definition Jp (h : hist) (p : pbl) : Prop :=
  totalReleased p = length (releasedLog p ++ toRelease p)
  /\ (forall i l, nth_error (releasedLog p ++ toRelease p) i = Some l -> exists ip, pop_at h ip i l)
  /\ (forall ip i l, pop_at h ip i l -> nth_error (releasedLog p ++ toRelease p) i = Some l).

Definition Jcov (h : hist) (p : pbl) : Prop :=
  forall i l, nth_error (releasedLog p) i = Some l -> covered h i l.

Definition mark (s : sys) : nat := length (releasedLog (s_pbl s)) + releasing (s_pbl s).

Definition Jw (h : hist) (s : sys) : Prop :=
  (forall t st, wpc_of t s = Some (WWriting st) -> exists ig, flight h (mark s) t ig st)
  /\ (forall t, wpc_of t s = Some WWritten ->
        exists ig iw st, ig < iw /\ write_completes_at h iw t st /\ flight h (mark s) t ig st).

Definition Jn (h : hist) (p : pbl) : Prop :=
  forall ip i l ig iz t t' st, pop_at h ip i l -> ip < ig -> write_starts_at h ig t st -> ig < iz ->
    no_start_between h ig iz -> notified_at h iz t' ->
    t' = t /\ nth_error (releasedLog p) i = Some l.

Definition J (h : hist) (s : sys) : Prop :=
  Jp h (s_pbl s) /\ Jcov h (s_pbl s) /\ Jw h s /\ Jn h (s_pbl s).

Lemma Jp_nonpop h p p' s e s' : Jp h p -> e <> EPopFront ->
  releasedLog p' ++ toRelease p' = releasedLog p ++ toRelease p -> totalReleased p' = totalReleased p ->
  Jp (h ++ [(s, e, s')]) p'.
Proof.
  intros (T & P1 & P2) Hne Happ Ht. unfold Jp. rewrite Happ, Ht. splits; auto.
  - intros i l Hn. destruct (P1 _ _ Hn) as [ip Hp]. exists ip. apply pop_at_mono. exact Hp.
  - intros ip i l Hp. apply (P2 ip).
    destruct (pop_at_snoc _ _ _ _ _ _ _ Hp) as [Hp0|(_ & He & _)]; [exact Hp0|contradiction].
Qed.

Lemma Jp_pop cfg h s s' : Jp h (s_pbl s) -> step cfg s EPopFront = Some (Ok s') ->
  Jp (h ++ [(s, EPopFront, s')]) (s_pbl s').
Proof.
  intros (T & P1 & P2) H.
  pose proof (act_rel _ _ _ (step_act _ _ _ _ H)) as R. cbn [act_of] in R.
  destruct R as (fb & rest & Eb & R1 & _ & R3 & R4).
  unfold Jp. rewrite R1, R3, R4, app_assoc. splits.
  - rewrite app_length. cbn. lia.
  - intros i l Hn. destruct (nth_snoc_inv _ _ _ _ Hn) as [[Hlt Hn']|[Hi Hl]].
    + destruct (P1 _ _ Hn') as [ip Hp]. exists ip. apply pop_at_mono. exact Hp.
    + exists (length h), s, s', fb, rest. splits; auto; [apply nth_snoc_eq|congruence].
  - intros ip i l Hp. destruct (pop_at_snoc _ _ _ _ _ _ _ Hp) as [Hp0|(_ & _ & Ht & fb0 & rest0 & Hb & Hl)].
    + apply nth_error_app_some. exact (P2 ip _ _ Hp0).
    + rewrite Eb in Hb. injection Hb as <- _. rewrite <- Ht, <- Hl, T. apply nth_snoc_eq.
Qed.

Lemma Jcov_same h p p' x : Jcov h p -> releasedLog p' = releasedLog p -> Jcov (h ++ [x]) p'.
Proof. intros C Hr i l Hn. rewrite Hr in Hn. apply covered_mono. apply C. exact Hn. Qed.

Lemma Jn_lt h p p' s e s' : Jn h p -> (forall t, act_of s e <> AWritten t) ->
  (exists ext, releasedLog p' = releasedLog p ++ ext) -> Jn (h ++ [(s, e, s')]) p'.
Proof.
  intros N Hna [ext Hr] ip i l ig iz t t' st Hp Hlt Hw Hlt2 Hnsb Hz.
  assert (iz < length h) as Hiz.
  { destruct Hz as (a & e0 & b & Hn & Ha).
    destruct (nth_snoc_inv _ _ _ _ Hn) as [[Hl _]|[_ Heq]]; [exact Hl|].
    inversion Heq; subst. exfalso. eapply Hna. exact Ha. }
  destruct (N ip i l ig iz t t' st) as [E1 E2].
  - eapply pop_at_lt; eauto. lia.
  - exact Hlt.
  - eapply ws_lt; eauto. lia.
  - exact Hlt2.
  - eapply nsb_lt; eauto.
  - eapply not_lt; eauto.
  - split; [exact E1|]. rewrite Hr. apply nth_error_app_some. exact E2.
Qed.

Lemma Jw_quiet cfg h s e s' : Jw h s -> inv1 s -> step cfg s e = Some (Ok s') ->
  is_getstate (act_of s e) = false ->
  releasedLog (s_pbl s') = releasedLog (s_pbl s) -> releasing (s_pbl s') = releasing (s_pbl s) ->
  (e = EPopFront -> mark s <= totalReleased (s_pbl s)) ->
  Jw (h ++ [(s, e, s')]) s'.
Proof.
  intros [W1 W2] I1 H Hng Hr Hg Hpop.
  assert (mark s' = mark s) as Hm by (unfold mark; rewrite Hr, Hg; reflexivity).
  unfold Jw. rewrite Hm. split.
  - intros t st Hw. pose proof (step_wpc cfg s e s' t I1 H) as S. rewrite Hw in S.
    destruct S as [S|S]; [rewrite S in Hng; discriminate|].
    destruct (W1 _ _ S) as [ig F]. exists ig. apply flight_snoc; auto.
  - intros t Hw. pose proof (step_wpc cfg s e s' t I1 H) as S. rewrite Hw in S.
    destruct S as [[st S]|[S _]].
    + destruct (W1 _ _ S) as [ig F]. exists ig, (length h), st.
      split; [eapply ws_bound; exact (proj1 F)|].
      split; [|apply flight_snoc; auto].
      exists s, e, s'. split; [apply nth_snoc_eq|]. split; [apply written_state_wpc; exact S|exact Hw].
    + destruct (W2 _ S) as (ig & iw & st & Hlt & Hc & F). exists ig, iw, st.
      split; [exact Hlt|]. split; [apply wc_mono; exact Hc|apply flight_snoc; auto].
Qed.

Lemma Jw_getstate cfg h s e s' t0 : Jp h (s_pbl s) -> inv1 s -> inv3 s ->
  step cfg s e = Some (Ok s') -> act_of s e = AGetState t0 -> Jw (h ++ [(s, e, s')]) s'.
Proof.
  intros (T & P1 & P2) I1 I3 H Ha.
  pose proof (act_rel _ _ _ (step_act _ _ _ _ H)) as R. rewrite Ha in R.
  destruct R as (R1 & R2 & R3 & R4).
  destruct (wact_inv s e t0 WGetState Ha) as [Hg0 _]; [discriminate|].
  assert (e <> EPopFront) as Hne by (intros ->; discriminate Ha).
  split.
  - intros t st Hw. pose proof (step_wpc cfg s e s' t I1 H) as S. rewrite Hw in S.
    destruct S as [S|S].
    + rewrite Ha in S. inversion S; subst t0. exists (length h).
      unfold mark. rewrite R3, R2.
      destruct (getstate_step _ _ _ _ _ H Ha) as [p1 [st1 [Hgs [Hws _]]]].
      rewrite (proj2 (written_state_wpc _ _ _) Hw) in Hws. inversion Hws; subst st1.
      destruct (gps_fields _ _ _ Hgs) as [_ [_ [_ [_ [_ [_ [_ Hloop]]]]]]].
      split; [exists s, e, s'; split; [apply nth_snoc_eq|]; split; [exact Ha|apply written_state_wpc; exact Hw]|].
      split.
      { exists s, e, s'. split; [apply nth_snoc_eq|]. split; [rewrite T, app_length; reflexivity|].
        intros j x Hn. destruct (gps_prefix _ _ _ _ _ _ _ Hloop Hn) as [bb [Hb [Hl _]]]. exists bb. auto. }
      split.
      { intros k a e1 b Hk Hn. apply nth_bound in Hn. rewrite app_length in Hn. cbn in Hn. lia. }
      intros ip i l Hp.
      destruct (pop_at_snoc _ _ _ _ _ _ _ Hp) as [Hp0|(_ & He & _)]; [|contradiction].
      pose proof (pop_at_bound _ _ _ _ Hp0) as Hlt. pose proof (P2 _ _ _ Hp0) as Hn. apply nth_bound in Hn.
      rewrite app_length in Hn. split; intros; assumption.
    + exfalso. pose proof (holder_unique _ _ _ _ _ I3 Hg0 eq_refl S eq_refl) as E. subst t0.
      rewrite S in Hg0. discriminate.
  - intros t Hw. pose proof (step_wpc cfg s e s' t I1 H) as S. rewrite Hw in S. exfalso.
    destruct S as [[st S]|[S _]];
      pose proof (holder_unique _ _ _ _ _ I3 Hg0 eq_refl S eq_refl) as E; subst t0;
      rewrite S in Hg0; discriminate.
Qed.

Lemma Jw_written cfg h s e s' t0 : inv1 s -> inv3 s ->
  step cfg s e = Some (Ok s') -> act_of s e = AWritten t0 -> Jw (h ++ [(s, e, s')]) s'.
Proof.
  intros I1 I3 H Ha. destruct (act_written_wpc _ _ _ Ha) as [Hw0 _]. split.
  - intros t st Hw. pose proof (step_wpc cfg s e s' t I1 H) as S. rewrite Hw in S. exfalso.
    destruct S as [S|S]; [rewrite Ha in S; discriminate|].
    pose proof (holder_unique _ _ _ _ _ I3 Hw0 eq_refl S eq_refl) as E. subst t0.
    rewrite S in Hw0. discriminate.
  - intros t Hw. pose proof (step_wpc cfg s e s' t I1 H) as S. rewrite Hw in S. exfalso.
    destruct S as [[st S]|[S Hne]];
      pose proof (holder_unique _ _ _ _ _ I3 Hw0 eq_refl S eq_refl) as E; subst t0.
    + rewrite S in Hw0. discriminate.
    + apply Hne. exact Ha.
Qed.

Lemma Jcov_written cfg h s e s' t0 : Jp h (s_pbl s) -> Jcov h (s_pbl s) -> Jw h s ->
  step cfg s e = Some (Ok s') -> act_of s e = AWritten t0 -> Jcov (h ++ [(s, e, s')]) (s_pbl s').
Proof.
  intros (T & P1 & P2) C [_ W2] H Ha.
  pose proof (act_rel _ _ _ (step_act _ _ _ _ H)) as R. rewrite Ha in R.
  destruct R as (R1 & R2 & R3 & R4).
  destruct (act_written_wpc _ _ _ Ha) as [Hw0 _].
  intros i l Hn. rewrite R3 in Hn. apply covered_mono.
  destruct (Nat.lt_ge_cases i (length (releasedLog (s_pbl s)))) as [Hlt|Hge].
  - rewrite nth_error_app1 in Hn by exact Hlt. apply C. exact Hn.
  - destruct (W2 _ Hw0) as (ig & iw & st & Hlt & Hc & F1 & (a & e0 & b & F2 & F3 & F3') & F4 & F5).
    unfold mark in *.
    assert (i < length (releasedLog (s_pbl s)) + releasing (s_pbl s)) as Hi.
    { pose proof (nth_bound _ _ _ Hn) as Hb. rewrite app_length in Hb.
      pose proof (firstn_le_length (releasing (s_pbl s)) (toRelease (s_pbl s))). lia. }
    rewrite nth_app_firstn in Hn by exact Hi.
    destruct (P1 _ _ Hn) as [ip Hp].
    exists ip, ig, iw, t0, st. splits; auto.
    + apply (proj2 (F5 _ _ _ Hp)). lia.
    + exists a, e0, b. splits; auto. lia.
    + intros k a1 e1 b1 Hk _ Hk2. eapply F4; eauto.
Qed.

Lemma Jn_written cfg h s e s' t0 : Jp h (s_pbl s) -> Jw h s -> Jn h (s_pbl s) ->
  step cfg s e = Some (Ok s') -> act_of s e = AWritten t0 -> Jn (h ++ [(s, e, s')]) (s_pbl s').
Proof.
  intros (T & P1 & P2) [_ W2] N H Ha.
  pose proof (act_rel _ _ _ (step_act _ _ _ _ H)) as R. rewrite Ha in R.
  destruct R as (R1 & R2 & R3 & R4).
  destruct (act_written_wpc _ _ _ Ha) as [Hw0 _].
  intros ip i l ig iz t t' st Hp Hlt Hw Hlt2 Hnsb Hz.
  pose proof Hz as (a & e0 & b & Hn & Ha0).
  destruct (nth_snoc_inv _ _ _ _ Hn) as [[Hiz _]|[Hiz Heq]].
  - destruct (N ip i l ig iz t t' st) as [E1 E2].
    + eapply pop_at_lt; eauto. lia.
    + exact Hlt.
    + eapply ws_lt; eauto. lia.
    + exact Hlt2.
    + eapply nsb_lt; eauto.
    + eapply not_lt; eauto.
    + split; [exact E1|]. rewrite R3. apply nth_error_app_some. exact E2.
  - inversion Heq; subst a e0 b. rewrite Ha in Ha0. inversion Ha0; subst t'. subst iz.
    destruct (W2 _ Hw0) as (ig0 & iw0 & st0 & _ & _ & F1 & _ & F4 & F5).
    pose proof (ws_lt _ _ _ _ _ Hw Hlt2) as (a1 & e1 & b1 & Hn1 & Hg1 & _).
    pose proof F1 as (a2 & e2 & b2 & Hn2 & Hg2 & _).
    assert (ig = ig0) as ->.
    { destruct (Nat.lt_trichotomy ig ig0) as [Hc|[Hc|Hc]]; [exfalso|exact Hc|exfalso].
      - pose proof (Hnsb ig0 a2 e2 b2 Hc (nth_bound _ _ _ Hn2) (nth_error_app_some _ _ _ _ Hn2)) as Hf.
        rewrite Hg2 in Hf. discriminate.
      - pose proof (F4 ig a1 e1 b1 Hc Hn1) as Hf. rewrite Hg1 in Hf. discriminate. }
    rewrite Hn1 in Hn2. inversion Hn2; subst a2 e2 b2. rewrite Hg1 in Hg2. inversion Hg2; subst t.
    split; [reflexivity|].
    assert (ip < length h) as Hip by lia.
    pose proof (pop_at_lt _ _ _ _ _ Hp Hip) as Hp0.
    pose proof (proj1 (F5 _ _ _ Hp0) Hlt) as Hi. unfold mark in Hi.
    rewrite R3, nth_app_firstn by exact Hi. apply (P2 ip). exact Hp0.
Qed.

Lemma J_step cfg h s e s' : ainv s -> J h s -> step cfg s e = Some (Ok s') ->
  J (h ++ [(s, e, s')]) s'.
Proof.
  intros A Jh H. pose proof A as [[I1 _] [_ I3]]. pose proof Jh as (P & C & W & N).
  destruct (act_fields _ _ _ (step_act _ _ _ _ H)) as (Fr & Fg & Fl & Ft & _).
  assert (act_of s e <> APop -> e <> EPopFront) as Hne by (intros Hn ->; apply Hn; reflexivity).
  destruct (act_of s e) as [|al| |tok blk size seed| |b|t|t] eqn:Ea; cbn in Fr, Fg, Fl, Ft.
  8: { (* NotifyPersistentStateWritten *)
    split; [apply (Jp_nonpop _ _ _ _ _ _ P); [apply Hne; discriminate| |exact Ft];
            rewrite Fr, Fl, <- app_assoc, firstn_skipn; reflexivity|].
    split; [eapply Jcov_written; eauto|]. split; [eapply Jw_written; eauto|eapply Jn_written; eauto]. }
  (* every other call leaves the log of Release() calls alone *)
  all: split; [|split; [exact (Jcov_same _ _ _ _ C Fl)|split;
         [|apply (Jn_lt _ _ _ _ _ _ N); [rewrite Ea; discriminate|exists []; rewrite app_nil_r; exact Fl]]]].
  all: try (apply (Jp_nonpop _ _ _ _ _ _ P); [apply Hne; discriminate|rewrite Fr, Fl; reflexivity|exact Ft]).
  all: try (apply (Jw_quiet cfg _ _ _ _ W I1 H); [rewrite Ea; reflexivity|exact Fl|exact Fg|intros ->; discriminate Ea]).
  - (* PopFront *)
    pose proof (act_pop_event _ _ Ea) as ->. eapply Jp_pop; eauto.
  - apply (Jw_quiet cfg _ _ _ _ W I1 H); [rewrite Ea; reflexivity|exact Fl|exact Fg|]. intros _.
    destruct P as (T & _). unfold mark. rewrite T, app_length. pose proof (i_rel _ (proj1 I1)). lia.
  - (* GetPersistentState *)
    eapply Jw_getstate; eauto.
Qed.

Lemma pbl_new_rel alloc oldest init :
  toRelease (fst (pbl_new alloc oldest init)) = [] /\ releasedLog (fst (pbl_new alloc oldest init)) = []
  /\ totalReleased (fst (pbl_new alloc oldest init)) = 0.
Proof.
  unfold pbl_new. destruct (restore_blocks alloc init 0) as [[bl seeds] lasts]. cbn. auto.
Qed.

Lemma J_init alloc oldest init t0 : J [] (init_sys (fst (pbl_new alloc oldest init)) t0).
Proof.
  destruct (pbl_new_rel alloc oldest init) as (E1 & E2 & E3).
  assert (forall ip i l, ~ pop_at [] ip i l) as Hnp.
  { intros ip i l (a & b & fb & rest & Hn & _). destruct ip; discriminate. }
  unfold J. cbn [s_pbl init_sys]. splits.
  - unfold Jp. rewrite E1, E2, E3. splits; [reflexivity| |].
    + intros i l Hn. destruct i; discriminate.
    + intros ip i l Hp. exfalso. eapply Hnp; eauto.
  - intros i l Hn. rewrite E2 in Hn. destruct i; discriminate.
  - split; [intros t st Hw|intros t Hw]; destruct t; discriminate.
  - intros ip i l ig iz t t' st Hp. exfalso. eapply Hnp; eauto.
Qed.

Lemma hrun_J cfg s0 h s : ainv s0 -> J [] s0 -> hrun cfg s0 h s -> ainv s /\ J h s.
Proof.
  intros A0 J0 Hr. induction Hr as [|h s e s' Hr [A Jh] H]; [auto|].
  split; [eapply step_ainv; eauto|eapply J_step; eauto].
Qed.

Lemma reach_J cfg alloc oldest init t0 tr s :
  run cfg (init_sys (fst (pbl_new alloc oldest init)) t0) tr = Some (Ok s) ->
  ainv s /\ J (trace cfg (init_sys (fst (pbl_new alloc oldest init)) t0) tr) s.
Proof.
  intros H. apply (hrun_J cfg (init_sys (fst (pbl_new alloc oldest init)) t0)).
  - apply (reachable_ainv cfg alloc oldest init t0). apply reachable_init.
  - apply J_init.
  - apply run_hrun. exact H.
Qed.

(** the theorems of Props/C04P.v *)
Theorem released_in_pop_order_reach : forall cfg alloc oldest init t0 tr s,
  let s0 := init_sys (fst (pbl_new alloc oldest init)) t0 in
  run cfg s0 tr = Some (Ok s) ->
  totalReleased (s_pbl s) = length (releasedLog (s_pbl s) ++ toRelease (s_pbl s))
  /\ (forall i l, nth_error (releasedLog (s_pbl s) ++ toRelease (s_pbl s)) i = Some l ->
        exists ip, pop_at (trace cfg s0 tr) ip i l)
  /\ (forall ip i l, pop_at (trace cfg s0 tr) ip i l ->
        nth_error (releasedLog (s_pbl s) ++ toRelease (s_pbl s)) i = Some l).
Proof.
  intros cfg alloc oldest init t0 tr s s0 H.
  destruct (reach_J _ _ _ _ _ _ _ H) as [_ (P & _)]. exact P.
Qed.

Theorem no_reuse_before_state_rewritten_reach : forall cfg alloc oldest init t0 tr s i l,
  let s0 := init_sys (fst (pbl_new alloc oldest init)) t0 in
  run cfg s0 tr = Some (Ok s) ->
  nth_error (releasedLog (s_pbl s)) i = Some l ->
  covered (trace cfg s0 tr) i l.
Proof.
  intros cfg alloc oldest init t0 tr s i l s0 H Hn.
  destruct (reach_J _ _ _ _ _ _ _ H) as [_ (_ & C & _)]. apply C. exact Hn.
Qed.

Theorem released_blocks_become_allocatable_reach :
  forall cfg alloc oldest init t0 tr s i l ip ig iz t t' st,
  let s0 := init_sys (fst (pbl_new alloc oldest init)) t0 in
  let h := trace cfg s0 tr in
  run cfg s0 tr = Some (Ok s) ->
  pop_at h ip i l -> ip < ig -> write_starts_at h ig t st -> ig < iz ->
  no_start_between h ig iz -> notified_at h iz t' ->
  t' = t /\ nth_error (releasedLog (s_pbl s)) i = Some l.
Proof.
  intros cfg alloc oldest init t0 tr s i l ip ig iz t t' st s0 h H.
  destruct (reach_J _ _ _ _ _ _ _ H) as [_ (_ & _ & _ & N)]. apply N.
Qed.

Theorem popped_block_eventually_allocatable_reach : forall cfg alloc oldest init t0 tr s ip i l,
  let s0 := init_sys (fst (pbl_new alloc oldest init)) t0 in
  run cfg s0 tr = Some (Ok s) ->
  pop_at (trace cfg s0 tr) ip i l ->
  exists ext s', fair ext = true /\ length ext <= 10 /\ run cfg s ext = Some (Ok s')
    /\ nth_error (releasedLog (s_pbl s')) i = Some l.
Proof.
  intros cfg alloc oldest init t0 tr s ip i l s0 H Hp.
  destruct (reach_J _ _ _ _ _ _ _ H) as [A ((_ & _ & P2) & _)].
  pose proof (P2 _ _ _ Hp) as Hn.
  destruct (Nat.lt_ge_cases i (length (releasedLog (s_pbl s)))) as [Hlt|Hge].
  - exists [], s. rewrite nth_error_app1 in Hn by exact Hlt.
    split; [reflexivity|]. split; [cbn; lia|]. split; [reflexivity|exact Hn].
  - assert (toRelease (s_pbl s) <> []) as Hne.
    { intros E. rewrite E, app_nil_r in Hn. apply nth_bound in Hn. lia. }
    destruct (release_eventually cfg s A Hne) as (ext & s' & Hf & Hl & Hr & _ & Hlog).
    exists ext, s'. splits; auto. rewrite Hlog. exact Hn.
Qed.
