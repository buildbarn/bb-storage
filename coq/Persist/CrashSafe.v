(** Persist/CrashSafe.v — crash safety of the first life, assembled from
    CrashEpochProofs (durability chain), CrashOffsetsProofs (restored write
    offsets cover) and CrashReuseProofs (same region after the restart, no
    later surviving write of another upload). *)
From Coq Require Import List NArith ZArith Bool Arith Lia.
From BBS Require Import Persist.PBL Persist.Syncer Persist.Crash Persist.CrashLts.
From BBS Require Persist.CrashEpochProofs Persist.CrashOffsetsProofs Persist.CrashReuseProofs.
Import ListNotations.

Theorem crash_safe_thm : forall g cfg t0 c, length (g_locs g) < 65536 -> NoDup (g_locs g) ->
  creach g cfg medium_empty t0 c ->
  forall n ch slot r i, resolves g (crash_of medium_empty c n ch) slot r i ->
  exists up l b,
    (* the record designates the allocation of a completed upload of its key *)
    nth_error (cs_ups c) (r_up r) = Some up /\ up_key up = r_key r /\ up_off up = r_off r /\
    up_size up = r_size r /\ up_state up = UpFin true /\ up_issued up = up_size up /\
    (* every data write of that upload was durable at the crash point *)
    (forall q l' lo hi, nth_error (cs_log c) q = Some (IoData (r_up r) l' lo hi) ->
       q < durable_upto (firstn n (cs_log c))) /\
    (* the restarted list resolves it to the region the upload was allocated in, below the restored write offset *)
    nth_error (blocks (fst (restart (geom g) (m_state (crash_of medium_empty c n ch))))) i = Some b /\
    b_loc b = l /\ nth_error (cs_locs c) (up_abs up) = Some l /\
    (0 <= r_off r)%Z /\ (0 <= r_size r)%Z /\ (r_off r + r_size r <= b_written b)%Z /\
    (* and on the post-crash data device those bytes are exactly what that upload wrote *)
    (forall z, (r_off r <= z < r_off r + r_size r)%Z ->
       byte_owner (m_data (crash_of medium_empty c n ch)) l z None = Some (r_up r)).
Proof.
  intros g cfg t0 c Hg Hnd R n ch slot r i Hres.
  destruct (CrashEpochProofs.crash_safe_durable g cfg t0 c R n ch slot r i Hres)
    as (up & U1 & U2 & U3 & U4 & U5 & U6 & U7).
  destruct (CrashReuseProofs.crash_safe_bytes g cfg t0 c Hg Hnd R n ch slot r i Hres)
    as (up' & l & V1 & V2 & V3 & V4).
  rewrite U1 in V1. inversion V1; subst up'.
  destruct (CrashOffsetsProofs.restored_offsets_cover g cfg t0 c Hg R n ch slot r i Hres)
    as (b & B1 & B2 & B3 & B4).
  exists up, l, b. unfold block_loc in V2. rewrite B1 in V2. inversion V2.
  subst l. repeat split; auto.
  all: try (intros; eauto).
Qed.
Print Assumptions crash_safe_thm.
