(** Persist/LivePut.v — liveness of the put loop in bounded form: after any
    schedule following the acknowledgement of an upload there is a fair
    extension of bounded length after which a state write covering the upload
    has completed (or the upload's block has been released by PopFront).

    Ghost: [phase], computed by scanning the executed schedule after the
    finalizer ([ph_next]):
      Ph0  no data sync has started since the acknowledgement
      Ph1  a data sync started since then is in flight
      Ph2  such a sync has completed; no state write started since has completed
      Ph3 t  loop t is inside a state write started in Ph2
      PhDone  that write has completed (NotifyPersistentStateWritten ran). *)
From Coq Require Import List NArith ZArith Bool Arith Lia.
From BBS Require Import Persist.PBL Persist.PBLProofs Persist.Syncer Persist.SyncerProofs
  Persist.LiveActs Persist.LiveCover Persist.LiveRelease Persist.LiveFair.
Import ListNotations.

Definition p_succ (a : ans) (pc : ppc) (pc' : ppc) : Prop :=
  match pc with
  | PStart => exists ch, pc' = PSelect ch
  | PSelect ch => (exists dl, pc' = PTimer dl) \/ pc' = PIdle ch
  | PIdle _ => pc' = PNotify false \/ exists dl, pc' = PTimer dl
  | PTimer _ => pc' = PNotify false \/ pc' = PNotify true
  | PNotify k => pc' = PSyncing k false
  | PSyncing k f => (a_ok a = true /\ pc' = PSyncRet k f) \/ (a_ok a = false /\ exists dl, pc' = PSyncSleep k f dl)
  | PSyncSleep k f _ => pc' = PSyncing k f
  | PSyncRet k f => pc' = (if negb k && negb f then PSyncing false true else PW k WAcquire)
  | PW k w =>
      match w with
      | WAcquire => pc' = PW k WGetState
      | WGetState => exists st, pc' = PW k (WWriting st)
      | WWriting _ => (a_ok a = true /\ pc' = PW k WWritten) \/ (a_ok a = false /\ exists dl, pc' = PW k (WSleep dl))
      | WWritten => pc' = (if k then PStart else PExit)
      | WSleep _ => pc' = PW k WAcquire
      end
  | PExit => False
  end.

Lemma pstep_pc cfg a s s' : pstep cfg a s = Some (Ok s') -> p_succ a (s_p s) (s_p s').
Proof.
  intros H. unfold p_succ.
  destruct (pstep_cases H) as [pc pc' Ep J|dl Ep _ _ _|keep Ep|Ep|keep final Ep E|keep w s1 w' Ep Hw]; rewrite Ep; cbn.
  - destruct J; cbn; eauto.
  - auto.
  - reflexivity.
  - reflexivity.
  - rewrite E. reflexivity.
  - destruct (wstep_cases Hw); cbn; eauto.
Qed.

(** closedForWriting: set exactly by the final NotifySyncStarting *)
(** pcs of the put loop after the final NotifySyncStarting(true) *)
Definition p_final (s : sys) : bool :=
  match s_p s with
  | PSyncing _ true | PSyncSleep _ true _ | PSyncRet _ true | PW false _ | PExit => true
  | _ => false
  end.

Definition cinv (s : sys) : Prop := p_final s = true -> closedForWriting (s_pbl s) = true.

Lemma step_cinv cfg s e s' : inv1 s -> cinv s -> step cfg s e = Some (Ok s') -> cinv s'.
Proof.
  intros II C H Hf. destruct (act_fields _ _ _ (step_act _ _ _ _ H)) as (_ & _ & _ & _ & Hc & _).
  assert (closedForWriting (s_pbl s) = true -> closedForWriting (s_pbl s') = true) as Hmono.
  { intros E. rewrite Hc, E. destruct (act_of s e) as [| | | | |[]| |]; reflexivity. }
  destruct (t_or_not TP e) as [[a ->]|Hne].
  2:{ apply Hmono, C. unfold p_final in *. rewrite (p_frame cfg s _ s' II H Hne) in Hf. exact Hf. }
  cbn [step] in H. unfold cinv, p_final in *. cbn [act_of] in Hc. revert Hf C Hc.
  destruct (pstep_cases H) as [pc pc' Ep J|dl Ep _ _ _|keep Ep|Ep|keep final Ep E|keep w s1 w' Ep Hw];
    rewrite Ep; cbn; intros Hf C Hc; try discriminate Hf.
  - destruct J; cbn in Hf; try discriminate Hf; apply Hmono, C, Hf.
  - exact Hc.
  - destruct keep, final; try discriminate; apply Hmono, C; reflexivity.
  - destruct w', keep; try discriminate Hf; apply Hmono, C; reflexivity.
Qed.

Inductive phase := Ph0 | Ph1 | Ph2 | Ph3 (t : tid) | PhDone.

Definition tid_of (e : event) : option tid := match e with EStep t _ => Some t | _ => None end.

(** the step is the failure of loop t's WritePersistentState call *)
Definition is_wfail (t : tid) (s : sys) (e : event) : bool :=
  match e with
  | EStep t' a => tid_eqb t t' && negb (a_ok a) &&
                  match wpc_of t s with Some (WWriting _) => true | _ => false end
  | _ => false
  end.

Definition is_written (a : act) : bool := match a with AWritten _ => true | _ => false end.
Definition getstate_tid (a : act) : option tid := match a with AGetState t => Some t | _ => None end.

Definition ph_next (ph : phase) (s : sys) (e : event) : phase :=
  match ph with
  | Ph0 => if sync_starts s e then Ph1 else Ph0
  | Ph1 => if sync_completes s e then Ph2 else Ph1
  | Ph2 => match getstate_tid (act_of s e) with Some t => Ph3 t | None => Ph2 end
  | Ph3 t => if is_written (act_of s e) then PhDone
             else if is_wfail t s e then Ph2 else Ph3 t
  | PhDone => PhDone
  end.

Fixpoint scan (cfg : config) (ph : phase) (s : sys) (tr : list event) : phase :=
  match tr with
  | [] => ph
  | e :: tr' =>
      match step cfg s e with
      | Some (Ok s') => scan cfg (ph_next ph s e) s' tr'
      | _ => ph
      end
  end.

Lemma scan_app cfg tr1 : forall ph s tr2 s1, run cfg s tr1 = Some (Ok s1) ->
  scan cfg ph s (tr1 ++ tr2) = scan cfg (scan cfg ph s tr1) s1 tr2.
Proof.
  induction tr1 as [|e tr1 IH]; intros ph s tr2 s1 H; cbn in *.
  - injection H as <-. reflexivity.
  - destruct (step cfg s e) as [[s'|]|]; try discriminate. apply IH. exact H.
Qed.

Definition p_syncing (s : sys) : bool :=
  match s_p s with PSyncing _ _ | PSyncSleep _ _ _ | PSyncRet _ _ => true | _ => false end.

(** between the completion of the covering sync and the start of the put
    loop's own state write *)
Definition p2ok (s : sys) : bool :=
  match s_p s with
  | PW _ WAcquire | PW _ (WSleep _) | PW _ WGetState
  | PSyncing false true | PSyncSleep false true _ | PSyncRet false true => true
  | _ => false
  end.

Definition pinv (ph : phase) (s : sys) : Prop :=
  match ph with
  | Ph0 => closedForWriting (s_pbl s) = false
  | Ph1 => p_syncing s = true
  | Ph2 => p2ok s = true
  | Ph3 t => in_write t s = true /\ (t = TR -> p2ok s = true)
  | PhDone => True
  end.

Lemma p2ok_step cfg s e s' : inv1 s -> p2ok s = true -> step cfg s e = Some (Ok s') ->
  (forall k a, e = EStep TP a -> s_p s <> PW k WGetState) -> p2ok s' = true.
Proof.
  intros II H2 H Hng. unfold p2ok in *.
  destruct (t_or_not TP e) as [[a ->]|Hne]; [|rewrite (p_frame _ _ _ _ II H Hne); exact H2].
  cbn [step] in H. pose proof (pstep_pc _ _ _ _ H) as T. unfold p_succ in T.
  destruct (s_p s) as [|ch|ch|dl|keep|keep final|keep final|keep final dl|keep w|]; try discriminate.
  - destruct keep, final; try discriminate. destruct T as [[_ ->]|[_ [dl ->]]]; reflexivity.
  - destruct keep, final; try discriminate. rewrite T. reflexivity.
  - destruct keep, final; try discriminate. rewrite T. reflexivity.
  - destruct w; try discriminate; try (rewrite T; reflexivity). exfalso. eapply Hng; reflexivity.
Qed.

Lemma in_write_holds_r s : in_write TR s = true -> r_holds s = true.
Proof. unfold in_write, wpc_of, r_holds. destruct (s_r s) as [| |[]]; cbn; congruence. Qed.
Lemma in_write_holds_p s : in_write TP s = true -> p_holds s = true.
Proof. unfold in_write, wpc_of, p_holds. destruct (s_p s) as [| | | | | | | |? []|]; cbn; congruence. Qed.

Lemma act_syncstart s e : act_of s e = ASyncStart -> exists a k, e = EStep TP a /\ s_p s = PNotify k.
Proof.
  destruct e as [alloc| |index size|k blk seed|d| |[] a]; cbn [act_of]; try discriminate.
  - destruct (nth_error _ _) as [[[tok sz]|]|]; discriminate.
  - destruct (s_r s) as [| |[]]; discriminate.
  - destruct (s_p s) as [| | | |k| | | |? []|]; try discriminate. eauto.
Qed.

Lemma act_syncdone s e b : act_of s e = ASyncDone b ->
  exists a k f, e = EStep TP a /\ s_p s = PSyncRet k f /\ b = negb k && negb f.
Proof.
  destruct e as [alloc| |index size|k blk seed|d| |[] a]; cbn [act_of]; try discriminate.
  - destruct (nth_error _ _) as [[[tok sz]|]|]; discriminate.
  - destruct (s_r s) as [| |[]]; discriminate.
  - destruct (s_p s) as [| | | | | |k f| |? []|]; try discriminate. intros H; inversion H. eauto 6.
Qed.

Lemma act_tp s a : act_of s (EStep TP a) =
  match s_p s with
  | PNotify _ => ASyncStart
  | PSyncRet k f => ASyncDone (negb k && negb f)
  | PW _ w => wact TP w
  | _ => ANone
  end.
Proof. reflexivity. Qed.

Lemma act_tr s a : act_of s (EStep TR a) = match s_r s with RW w => wact TR w | _ => ANone end.
Proof. reflexivity. Qed.

Lemma step_pinv cfg ph s e s' : ainv s -> pinv ph s -> step cfg s e = Some (Ok s') -> pinv (ph_next ph s e) s'.
Proof.
  intros [[II _] [_ [_ I3x]]] P H.
  destruct ph as [| | |t|]; cbn [pinv ph_next] in *.
  - (* Ph0 *)
    unfold sync_starts. destruct (act_fields _ _ _ (step_act _ _ _ _ H)) as (_ & _ & _ & _ & Hc & _).
    destruct (act_of s e) as [| | | | |[]| |] eqn:Ea; cbn [pinv]; try (rewrite Hc; exact P).
    + destruct (act_syncstart _ _ Ea) as [a [k [-> Ep]]]. cbn [step] in H.
      pose proof (pstep_pc _ _ _ _ H) as T. unfold p_succ in T. rewrite Ep in T. unfold p_syncing. rewrite T. reflexivity.
    + destruct (act_syncdone _ _ _ Ea) as [a [k [f [-> [Ep Hb]]]]]. cbn [step] in H.
      pose proof (pstep_pc _ _ _ _ H) as T. unfold p_succ in T. rewrite Ep, <- Hb in T. unfold p_syncing. rewrite T. reflexivity.
  - (* Ph1 *)
    unfold sync_completes. destruct (t_or_not TP e) as [[a ->]|Hne].
    + cbn [step] in H. pose proof (pstep_pc _ _ _ _ H) as T. unfold p_succ in T. rewrite act_tp. unfold p_syncing in P.
      destruct (s_p s) as [| | | | |k f|k f|k f dl|k w|]; try discriminate; cbn [pinv].
      * unfold p_syncing. destruct T as [[_ ->]|[_ [dl ->]]]; reflexivity.
      * unfold p2ok. rewrite T. destruct k, f; reflexivity.
      * unfold p_syncing. rewrite T. reflexivity.
    + assert (s_p s' = s_p s) as Ef by (eapply p_frame; eauto).
      destruct (act_of s e) eqn:Ea; cbn [pinv]; try (unfold p_syncing in *; rewrite Ef; exact P).
      destruct (act_syncdone _ _ _ Ea) as [a [k [f [-> _]]]]. exfalso. eapply Hne. reflexivity.
  - (* Ph2 *)
    destruct (getstate_tid (act_of s e)) as [t|] eqn:Eg.
    + destruct (act_of s e) eqn:Ea; try discriminate. injection Eg as ->.
      destruct (getstate_step _ _ _ _ _ H Ea) as (p' & st & _ & Hw & _ & a & ->). cbn [pinv].
      split; [exact (written_in_write _ _ _ Hw)|].
      intros ->. unfold p2ok in *. rewrite (rstep_frame _ _ _ _ II H). exact P.
    + cbn [pinv]. eapply p2ok_step; eauto. intros k a -> Ek. rewrite act_tp, Ek in Eg. discriminate.
  - (* Ph3 t *)
    destruct P as [Hin Hp2].
    destruct (is_written (act_of s e)) eqn:Ew; [exact I|].
    assert (t = TR -> p2ok s' = true) as Hp2'.
    { intros ->. eapply p2ok_step; eauto. intros k a _ Ek.
      apply in_write_holds_r in Hin. rewrite Hin in I3x. unfold p_holds in I3x. rewrite Ek in I3x. discriminate. }
    destruct (is_wfail t s e) eqn:Ewf; cbn [pinv].
    + unfold is_wfail in Ewf. destruct e as [alloc| |index size|k blk seed|d| |t' a]; try discriminate.
      apply andb_true_iff in Ewf. destruct Ewf as [Ewf Hww]. apply andb_true_iff in Ewf. destruct Ewf as [Et Hok].
      apply negb_true_iff in Hok. destruct t, t'; try discriminate.
      * apply Hp2'. reflexivity.
      * cbn [step] in H. pose proof (pstep_pc _ _ _ _ H) as T. unfold p_succ in T. unfold wpc_of in Hww. unfold p2ok.
        destruct (s_p s) as [| | | | | | | |k []|]; try discriminate.
        destruct T as [[Hok' _]|[_ [dl T]]]; [congruence|]. rewrite T. reflexivity.
    + split; [|exact Hp2']. unfold in_write in *.
      destruct (t_or_not t e) as [[a ->]|Hne]; [|rewrite (wpc_frame _ _ _ _ _ II H Hne); exact Hin].
      pose proof (wpc_own _ _ _ _ _ H) as Ho. unfold is_wfail in Ewf.
      destruct (wpc_of t s) as [[| |st| |]|] eqn:Ew0; try discriminate.
      * destruct Ho as (s1 & Ho & _). cbn [wstep] in Ho.
        destruct (a_ok a); [injection Ho as _ <-; reflexivity|destruct t; discriminate].
      * rewrite (act_own _ _ _ _ Ew0) in Ew. discriminate.
  - exact I.
Qed.

Lemma step_some_ok cfg s e : inv1 s -> step cfg s e <> None -> exists s', step cfg s e = Some (Ok s').
Proof.
  intros II Hn. destruct (step cfg s e) as [r|] eqn:E; [|congruence].
  destruct (step_inv1 _ _ _ _ II E) as [s' [-> _]]. eauto.
Qed.

Definition tp_cond (s : sys) (a : ans) : Prop :=
  match s_p s with
  | PIdle ch => is_closed (heap (s_pbl s)) ch = true
  | PTimer dl => a_ok a = true /\ (dl <= a_time a)%N /\ (a_time a <= s_now s)%N
  | PSyncSleep _ _ dl => (dl <= s_now s)%N
  | PW _ WAcquire => s_store s = None
  | PW _ (WSleep dl) => (dl <= s_now s)%N
  | PExit => False
  | _ => True
  end.

Lemma tp_enabled cfg s a : inv1 s -> tp_cond s a -> exists s', step cfg s (EStep TP a) = Some (Ok s').
Proof.
  intros II Hc. apply step_some_ok; [exact II|]. cbn [step]. unfold pstep. unfold tp_cond in Hc.
  destruct (s_p s) as [|ch|ch|dl|keep|keep final|keep final|keep final dl|keep w|].
  - discriminate.
  - destruct (is_closed _ _); discriminate.
  - rewrite Hc. destruct (s_cancel s && _); discriminate.
  - destruct Hc as [Ha [H1 H2]]. apply N.leb_le in H1. apply N.leb_le in H2. rewrite H1, H2, Ha. cbn.
    destruct (s_cancel s); discriminate.
  - discriminate.
  - destruct (a_ok a); discriminate.
  - destruct (negb keep && negb final); discriminate.
  - apply N.leb_le in Hc. rewrite Hc. discriminate.
  - unfold wstep. destruct w.
    + rewrite Hc. discriminate.
    + destruct (get_persistent_state _) as [[? ?]|]; discriminate.
    + destruct (a_ok a); discriminate.
    + destruct (notify_state_written _); discriminate.
    + apply N.leb_le in Hc. rewrite Hc. discriminate.
  - destruct Hc.
Qed.

Lemma tr_holder_enabled cfg s a : inv1 s -> r_holds s = true -> exists s', step cfg s (EStep TR a) = Some (Ok s').
Proof.
  intros II Hh. apply step_some_ok; [exact II|]. cbn [step]. unfold rstep, r_holds in *.
  destruct (s_r s) as [| |w]; try discriminate. unfold wstep. destruct w; try discriminate.
  - destruct (get_persistent_state _) as [[? ?]|]; discriminate.
  - destruct (a_ok a); discriminate.
  - destruct (notify_state_written _); discriminate.
Qed.

Definition lockdist (s : sys) : nat :=
  match s_r s with RW WGetState => 3 | RW (WWriting _) => 2 | RW WWritten => 1 | _ => 0 end.

Definition d2 (s : sys) : nat :=
  match s_p s with
  | PW _ WGetState => 1
  | PW _ WAcquire => 2 + lockdist s
  | PW _ (WSleep _) => 4 + lockdist s
  | PSyncRet _ _ => 3 + lockdist s
  | PSyncing _ _ => 4 + lockdist s
  | PSyncSleep _ _ _ => 6 + lockdist s
  | _ => 0
  end.

Definition d1 (s : sys) : nat :=
  match s_p s with PSyncRet _ _ => 1 | PSyncing _ _ => 2 | PSyncSleep _ _ _ => 4 | _ => 0 end.

Definition d0 (s : sys) : nat :=
  match s_p s with
  | PNotify _ => 1
  | PTimer _ => 3
  | PIdle _ => 4
  | PSelect _ => 5
  | PStart => 6
  | PW _ WWritten => 7
  | PW _ (WWriting _) => 8
  | PW _ WGetState => 9
  | PW _ WAcquire => 10 + lockdist s
  | PW _ (WSleep _) => 12 + lockdist s
  | PSyncRet _ _ => 11 + lockdist s
  | PSyncing _ _ => 12 + lockdist s
  | PSyncSleep _ _ _ => 14 + lockdist s
  | PExit => 0
  end.

Definition wd (t : tid) (s : sys) : nat := match wpc_of t s with Some w => w_dist w | None => 0 end.

Definition rank (ph : phase) (s : sys) : nat :=
  match ph with
  | Ph0 => 18 + d0 s
  | Ph1 => 13 + d1 s
  | Ph2 => 3 + d2 s
  | Ph3 t => wd t s
  | PhDone => 0
  end.

Lemma lockdist_le s : lockdist s <= 3.
Proof. unfold lockdist. destruct (s_r s) as [| |[]]; lia. Qed.

Lemma rank_le ph s : rank ph s <= 35.
Proof.
  pose proof (lockdist_le s). destruct ph as [| | |t|]; unfold rank, d0, d1, d2, wd, wpc_of.
  - destruct (s_p s) as [| | | | | | | |? []|]; lia.
  - destruct (s_p s) as [| | | | | | | |? []|]; lia.
  - destruct (s_p s) as [| | | | | | | |? []|]; lia.
  - destruct t; [destruct (s_r s) as [| |[]]|destruct (s_p s) as [| | | | | | | |? []|]]; cbn; lia.
  - lia.
Qed.

Definition tp_chunk (s : sys) : list event :=
  match s_p s with
  | PTimer dl => [ETick dl; EStep TP (mkAns true dl)]
  | PSyncSleep _ _ dl | PW _ (WSleep dl) => [ETick dl; EStep TP ok0]
  | _ => [EStep TP ok0]
  end.

Definition choose (ph : phase) (s : sys) : list event :=
  match ph with
  | Ph3 TR => [EStep TR ok0]
  | _ => match s_p s with
         | PW _ WAcquire => match lockdist s with 0 => tp_chunk s | S _ => [EStep TR ok0] end
         | _ => tp_chunk s
         end
  end.

Lemma tp_chunk_ok s : fair (tp_chunk s) = true /\ 0 < length (tp_chunk s).
Proof. unfold tp_chunk. destruct (s_p s) as [| | | | | | | |? []|]; cbn; split; (reflexivity || lia). Qed.

Lemma choose_ok ph s : fair (choose ph s) = true /\ 0 < length (choose ph s).
Proof.
  assert (fair [EStep TR ok0] = true /\ 0 < length [EStep TR ok0]) as Htr by (cbn; split; [reflexivity|lia]).
  unfold choose. destruct ph as [| | |[]|]; try exact Htr;
    destruct (s_p s) as [| | | | | | | |? []|]; try apply tp_chunk_ok; (destruct (lockdist s); [apply tp_chunk_ok|exact Htr]).
Qed.

Lemma lockdist_holds s : r_holds s = match lockdist s with 0 => false | _ => true end.
Proof. unfold r_holds, lockdist. destruct (s_r s) as [| |[]]; reflexivity. Qed.

Lemma ph_next_tick ph s d : ph_next ph s (ETick d) = ph.
Proof. destruct ph; reflexivity. Qed.

Lemma scan1 cfg ph s e s' : step cfg s e = Some (Ok s') -> scan cfg ph s [e] = ph_next ph s e.
Proof. intros H. cbn. rewrite H. reflexivity. Qed.

Lemma inv1_tick s d : inv1 s -> inv1 (with_now s (s_now s + d)).
Proof. intros I. exact I. Qed.

Lemma tp_go cfg ph s a : inv1 s -> tp_cond s a ->
  exists s', run cfg s [EStep TP a] = Some (Ok s') /\ scan cfg ph s [EStep TP a] = ph_next ph s (EStep TP a)
    /\ s_r s' = s_r s /\ p_succ a (s_p s) (s_p s').
Proof.
  intros II Hc. destruct (tp_enabled cfg s a II Hc) as [s' Hs]. exists s'.
  split; [apply run1; exact Hs|]. split; [eapply scan1; exact Hs|]. cbn [step] in Hs.
  split; [eapply pstep_frame; eauto|eapply pstep_pc; eauto].
Qed.

Lemma ph_next_now ph s n e : ph_next ph (with_now s n) e = ph_next ph s e.
Proof. destruct ph; reflexivity. Qed.

Lemma tp_go_tick cfg ph s a d : inv1 s -> tp_cond (with_now s (s_now s + d)) a ->
  exists s', run cfg s [ETick d; EStep TP a] = Some (Ok s')
    /\ scan cfg ph s [ETick d; EStep TP a] = ph_next ph s (EStep TP a)
    /\ s_r s' = s_r s /\ p_succ a (s_p s) (s_p s').
Proof.
  intros II Hc. destruct (tp_go cfg ph (with_now s (s_now s + d)) a II Hc) as (s' & Hr & Hsc & Hrest).
  exists s'. split; [exact Hr|]. split; [|exact Hrest].
  change (scan cfg ph s [ETick d; EStep TP a])
    with (scan cfg (ph_next ph s (ETick d)) (with_now s (s_now s + d)) [EStep TP a]).
  rewrite ph_next_tick, Hsc. apply ph_next_now.
Qed.

Lemma holder_wd s : r_holds s = true -> wd TR s = lockdist s.
Proof. unfold r_holds, wd, wpc_of, lockdist. destruct (s_r s) as [| |[]]; try discriminate; reflexivity. Qed.

Lemma tr_go cfg ph s : inv1 s -> r_holds s = true ->
  exists s', run cfg s [EStep TR ok0] = Some (Ok s') /\ scan cfg ph s [EStep TR ok0] = ph_next ph s (EStep TR ok0)
    /\ s_p s' = s_p s /\ S (lockdist s') = lockdist s /\ wd TR s' = lockdist s'.
Proof.
  intros II Hh. destruct (tr_holder_enabled cfg s ok0 II Hh) as [s' Hs]. exists s'.
  split; [apply run1; exact Hs|]. split; [eapply scan1; exact Hs|].
  cbn [step] in Hs. split; [eapply rstep_frame; eauto|]. unfold lockdist, wd, r_holds, wpc_of in *.
  destruct (rstep_cases Hs) as [Er|ch Er _|w s1 w' Er Hw]; rewrite Er in *; try discriminate Hh.
  destruct (wstep_cases Hw); try discriminate; split; reflexivity.
Qed.

(** progress: one chunk of the policy lowers the rank by its length *)
Definition progresses (cfg : config) (ph : phase) (s : sys) : Prop :=
  exists s', run cfg s (choose ph s) = Some (Ok s')
    /\ length (choose ph s) + rank (scan cfg ph s (choose ph s)) s' <= rank ph s.

Definition tp_ready (s : sys) : Prop :=
  match s_p s with
  | PIdle ch => is_closed (heap (s_pbl s)) ch = true
  | PW _ WAcquire => s_store s = None
  | PExit => False
  | _ => True
  end.

Lemma tp_moves cfg ph s : inv1 s -> tp_ready s ->
  exists a s', a_ok a = true /\ run cfg s (tp_chunk s) = Some (Ok s')
    /\ scan cfg ph s (tp_chunk s) = ph_next ph s (EStep TP a)
    /\ s_r s' = s_r s /\ p_succ a (s_p s) (s_p s').
Proof.
  intros II Hc. unfold tp_ready in Hc. unfold tp_chunk.
  destruct (s_p s) as [|ch|ch|dl|k|k f|k f|k f dl|k [| | | |dl]|] eqn:Ep;
    try (destruct (tp_go cfg ph s ok0 II) as [s' H]; [unfold tp_cond; rewrite Ep; exact Hc|];
         rewrite Ep in H; exists ok0, s'; split; [reflexivity|exact H]).
  - destruct (tp_go_tick cfg ph s (mkAns true dl) dl II) as [s' H].
    { unfold tp_cond. cbn. rewrite Ep. cbn. split; [reflexivity|lia]. }
    rewrite Ep in H. exists (mkAns true dl), s'. split; [reflexivity|exact H].
  - destruct (tp_go_tick cfg ph s ok0 dl II) as [s' H]; [unfold tp_cond; cbn; rewrite Ep; lia|].
    rewrite Ep in H. exists ok0, s'. split; [reflexivity|exact H].
  - destruct (tp_go_tick cfg ph s ok0 dl II) as [s' H]; [unfold tp_cond; cbn; rewrite Ep; lia|].
    rewrite Ep in H. exists ok0, s'. split; [reflexivity|exact H].
Qed.

Lemma tp_rank ph s s' a : a_ok a = true -> s_r s' = s_r s -> p_succ a (s_p s) (s_p s') ->
  pinv ph s -> match ph with Ph3 TR | PhDone => False | _ => True end ->
  (forall k, s_p s = PW k WAcquire -> lockdist s = 0) ->
  length (tp_chunk s) + rank (ph_next ph s (EStep TP a)) s' <= rank ph s.
Proof.
  intros Ha Er T P Hph Hl.
  assert (El : lockdist s' = lockdist s) by (unfold lockdist; rewrite Er; reflexivity).
  pose proof (lockdist_le s) as Hle.
  unfold ph_next, sync_starts, sync_completes, is_wfail, tp_chunk. rewrite act_tp, Ha.
  unfold rank, d0, d1, d2, wd, wpc_of. rewrite El. unfold p_succ in T. rewrite Ha in T.
  revert Hl Hle. generalize (lockdist s). intros l Hl Hle.
  destruct ph as [| | |[]|]; try destruct Hph; cbn [pinv] in P; unfold p_syncing, p2ok, in_write, wpc_of in P;
    destruct (s_p s) as [|ch|ch|dl|k|k f|[] []|k f dl|[] [| | | |dl]|]; try discriminate P; try (destruct P; discriminate);
    try rewrite (Hl _ eq_refl); decompose [ex or and] T; try contradiction; try discriminate;
    match goal with H : s_p s' = _ |- _ => rewrite H end;
    cbn [length wact getstate_tid is_written andb negb tid_eqb w_dist]; lia.
Qed.

Lemma progress_tp cfg ph s : inv1 s -> pinv ph s -> match ph with Ph3 TR | PhDone => False | _ => True end ->
  (forall k, s_p s = PW k WAcquire -> lockdist s = 0) -> tp_ready s -> progresses cfg ph s.
Proof.
  intros II P Hph Hl Hen. destruct (tp_moves cfg ph s II Hen) as (a & s' & Ha & Hr & Hsc & Er & T).
  assert (choose ph s = tp_chunk s) as Hch.
  { unfold choose. destruct ph as [| | |[]|]; try destruct Hph;
      destruct (s_p s) as [| | | | | | | |k []|] eqn:Ep; try reflexivity; rewrite (Hl _ eq_refl); reflexivity. }
  exists s'. rewrite Hch, Hsc. split; [exact Hr|]. apply tp_rank; assumption.
Qed.

Lemma lock_cases s k : ainv s -> s_p s = PW k WAcquire ->
  (lockdist s = 0 /\ s_store s = None) \/ (0 < lockdist s /\ r_holds s = true).
Proof.
  intros [_ [_ [I3a _]]] Ep. pose proof (lockdist_holds s) as Hh.
  destruct (lockdist s) as [|n]; [left|right; split; [lia|exact Hh]].
  split; [reflexivity|]. rewrite Hh in I3a. unfold p_holds in I3a. rewrite Ep in I3a. exact I3a.
Qed.

Lemma progress_locked cfg ph s k : inv1 s -> ph = Ph0 \/ ph = Ph2 -> s_p s = PW k WAcquire ->
  0 < lockdist s -> r_holds s = true -> progresses cfg ph s.
Proof.
  intros II Hph Ep Hl Hh. unfold progresses, choose. rewrite Ep.
  destruct (tr_go cfg ph s II Hh) as (s' & Hr & Hsc & Ep' & Hld & Hwd).
  assert (Hch : match ph with Ph3 TR => [EStep TR ok0]
                | _ => match lockdist s with 0 => tp_chunk s | S _ => [EStep TR ok0] end end = [EStep TR ok0]).
  { destruct (lockdist s); [lia|]. destruct Hph as [-> | ->]; reflexivity. }
  rewrite Hch. exists s'. split; [exact Hr|]. rewrite Hsc. unfold ph_next, sync_starts. rewrite act_tr.
  unfold r_holds in Hh.
  destruct Hph as [-> | ->]; destruct (s_r s) as [| |[]]; try discriminate;
    cbn [wact getstate_tid length rank]; unfold d0, d2; rewrite ?Ep', ?Ep, ?Hwd; lia.
Qed.

Lemma progress cfg ph s : ainv s -> cinv s -> pinv ph s -> ph <> PhDone ->
  (ph = Ph0 -> synchronizedEpochs (s_pbl s) < length (epochSeeds (s_pbl s))) -> progresses cfg ph s.
Proof.
  intros A C P Hnd Hpend. pose proof A as [[II _] [[_ Hheld] _]].
  destruct ph as [| | |[]|]; [| | | | |contradiction].
  - assert (p_final s = false) as Hnf.
    { cbn [pinv] in P. destruct (p_final s) eqn:E; [|reflexivity]. rewrite (C E) in P. discriminate. }
    unfold p_final in Hnf.
    destruct (s_p s) as [|ch|ch|dl|k|k f|k f|k f dl|k [| | | |dl]|] eqn:Ep;
      try (apply progress_tp; auto; [intros k' Ek; rewrite Ep in Ek; discriminate|unfold tp_ready; rewrite Ep; exact I]).
    + apply progress_tp; auto; [intros k' Ek; rewrite Ep in Ek; discriminate|]. unfold tp_ready. rewrite Ep.
      destruct (Hheld ch (or_intror Ep)) as [->|Hc]; [|exact Hc]. apply (inv_wakeup_put _ (proj1 II) (Hpend eq_refl)).
    + destruct (lock_cases s k A Ep) as [[Hl Hst]|[Hl Hh]]; [|eapply progress_locked; eauto].
      apply progress_tp; auto. unfold tp_ready. rewrite Ep. exact Hst.
    + discriminate.
  - cbn [pinv] in P. unfold p_syncing in P.
    apply progress_tp; auto; [intros k Ek; rewrite Ek in P; discriminate|].
    unfold tp_ready. destruct (s_p s) as [| | | | | | | |? []|]; try discriminate; exact I.
  - pose proof P as P2. cbn [pinv] in P2. unfold p2ok in P2.
    destruct (s_p s) as [| | | | | | | |k [| | | |dl]|] eqn:Ep; try discriminate;
      try (apply progress_tp; auto; [intros k' Ek; rewrite Ep in Ek; discriminate|unfold tp_ready; rewrite Ep; exact I]).
    destruct (lock_cases s k A Ep) as [[Hl Hst]|[Hl Hh]]; [|eapply progress_locked; eauto].
    apply progress_tp; auto. unfold tp_ready. rewrite Ep. exact Hst.
  - destruct P as [Hin _]. pose proof (in_write_holds_r _ Hin) as Hh. unfold in_write, wpc_of in Hin.
    destruct (tr_go cfg (Ph3 TR) s II Hh) as (s' & Hr & Hsc & _ & Hld & Hwd).
    exists s'. split; [exact Hr|]. unfold choose. rewrite Hsc. unfold ph_next. rewrite act_tr.
    unfold is_wfail, wpc_of. cbn [tid_eqb ok0 a_ok negb andb]. pose proof (holder_wd s Hh) as Hwd0.
    destruct (s_r s) as [| |[]]; try discriminate; cbn [wact is_written rank length]; rewrite ?Hwd; lia.
  - pose proof P as [Hin _]. unfold in_write, wpc_of in Hin.
    apply progress_tp; auto.
    + intros k Ek. rewrite Ek in Hin. discriminate.
    + unfold tp_ready. destruct (s_p s) as [| | | | | | | |? []|]; try discriminate; exact I.
Qed.

Definition lvl (ph : phase) : nat := match ph with Ph0 => 0 | Ph1 => 1 | _ => 2 end.

Lemma lvl_next ph s e : lvl (ph_next ph s e) <= lv_next (lvl ph) (act_of s e).
Proof.
  destruct ph as [| | |t|]; cbn [ph_next lvl].
  - unfold sync_starts. destruct (act_of s e) as [| | | | |[]| |]; cbn; lia.
  - unfold sync_completes. destruct (act_of s e) as [| | | | |[]| |]; cbn; lia.
  - transitivity 2; [destruct (getstate_tid _); cbn; lia|apply (lv_next_ge 2); lia].
  - transitivity 2; [destruct (is_written _); [|destruct (is_wfail _ _ _)]; cbn; lia|apply (lv_next_ge 2); lia].
  - apply (lv_next_ge 2). lia.
Qed.

(** before the covering sync starts the object's epoch is not yet synchronizing *)
Definition unsynced (o : obj) (d : nat) (p : pbl) : Prop :=
  o_block o < totalReleased p \/ synchronizingEpochs p <= o_epoch o - d.

Lemma unsynced_act o d a p p' : apply_act a p = Ok p' ->
  match a with ASyncStart | ASyncDone true => False | _ => True end ->
  unsynced o d p -> unsynced o (d + popc a p) p'.
Proof.
  intros Ha Hns U. destruct (act_fields _ _ _ Ha) as (_ & _ & _ & Ft & _ & _ & Fsy). unfold unsynced in *.
  destruct a as [|al| |tok blk size seed| |[]|t|t]; try destruct Hns; cbn [popc] in *;
    rewrite Ft, Fsy, ?Nat.add_0_r, ?Nat.sub_0_r; try exact U.
  destruct U; [left|right]; lia.
Qed.

Lemma writes_step cfg s e s' : step cfg s e = Some (Ok s') ->
  s_writes s' =
  match e with
  | EStep t a =>
      match wpc_of t s with
      | Some (WWriting st) =>
          if a_ok a then mkWrec t st (length (releasedLog (s_pbl s)) + releasing (s_pbl s)) :: s_writes s
          else s_writes s
      | _ => s_writes s
      end
  | _ => s_writes s
  end.
Proof.
  intros H. destruct (env_or_step e) as [Hne|(t & a & ->)].
  - destruct (env_shape _ _ _ _ H (not_step_env _ Hne)) as (p' & n' & c' & u' & -> & _).
    destruct e; try reflexivity. exfalso. eapply Hne. reflexivity.
  - pose proof (wpc_own _ _ _ _ _ H) as Ho. destruct (wpc_of t s) as [w|]; [|exact (proj2 Ho)].
    destruct Ho as (s1 & Hw & ->). destruct (wstep_cases Hw) as [| |st E|st E| |]; try rewrite E; reflexivity.
Qed.

Lemma writes_incl cfg s e s' w : step cfg s e = Some (Ok s') -> In w (s_writes s) -> In w (s_writes s').
Proof.
  intros H Hi. rewrite (writes_step _ _ _ _ H). destruct e as [| | | | | |t a]; auto.
  destruct (wpc_of t s) as [[]|]; auto. destruct (a_ok a); [right|]; exact Hi.
Qed.

Lemma step_released_mono cfg s e s' : step cfg s e = Some (Ok s') ->
  totalReleased (s_pbl s) <= totalReleased (s_pbl s').
Proof.
  intros H. destruct (act_fields _ _ _ (step_act _ _ _ _ H)) as (_ & _ & _ & -> & _).
  destruct (act_of s e); lia.
Qed.

(** the state of the covering write, once it has started *)
Definition cov (o : obj) (ph : phase) (s : sys) : Prop :=
  match ph with
  | Ph3 t => o_block o < totalReleased (s_pbl s)
             \/ (exists st bi ei, wpc_of t s = Some (WWriting st) /\ covers st bi o ei)
             \/ (wpc_of t s = Some WWritten /\
                 exists w bi ei, hd_error (s_writes s) = Some w /\ covers (w_state w) bi o ei)
  | PhDone => o_block o < totalReleased (s_pbl s)
              \/ exists w bi ei, In w (s_writes s) /\ covers (w_state w) bi o ei
  | _ => True
  end.

Definition uinv (o : obj) (ph : phase) (d : nat) (s : sys) : Prop :=
  ainv s /\ cinv s /\ pinv ph s /\ tracked o (lvl ph) d (s_pbl s)
  /\ (ph = Ph0 -> unsynced o d (s_pbl s)) /\ cov o ph s.

Lemma step_cov cfg o ph d s e s' : uinv o ph d s -> step cfg s e = Some (Ok s') -> cov o (ph_next ph s e) s'.
Proof.
  intros (A & C & P & T & U & V) H. pose proof A as [[II L] [_ I3]].
  pose proof (step_released_mono _ _ _ _ H) as Hmono.
  destruct ph as [| | |t|]; cbn [ph_next].
  - destruct (sync_starts s e); exact I.
  - destruct (sync_completes s e); exact I.
  - destruct (getstate_tid (act_of s e)) as [t|] eqn:Eg; [|exact I].
    destruct (act_of s e) eqn:Ea; try discriminate. inversion Eg; subst t0.
    destruct (getstate_step _ _ _ _ _ H Ea) as [p1 [st [Hgs [Hw _]]]].
    cbn [cov]. cbn [lvl] in T.
    destruct (gps_covers _ _ _ _ _ (proj1 II) L T Hgs) as [Hr|Hc]; [left; lia|right; left].
    exists st, (o_block o - totalReleased (s_pbl s)), (o_epoch o - d).
    split; [apply written_state_wpc; exact Hw|exact Hc].
  - cbn [pinv] in P. destruct P as [Hin Hp2]. cbn [cov] in V.
    destruct (is_written (act_of s e)) eqn:Ew.
    + (* the write completes *)
      cbn [cov]. destruct (act_of s e) eqn:Ea; try discriminate.
      pose proof (written_by _ _ _ _ (in_write_excl _ _ I3 Hin) Ea) as ->.
      destruct (act_written_wpc _ _ _ Ea) as [Hwp _].
      destruct V as [V|[(st & bi & ei & Hwr & _)|(_ & w & bi & ei & Hhd & Hc)]]; [left; lia|congruence|right].
      exists w, bi, ei. split; [|exact Hc]. eapply writes_incl; eauto.
      destruct (s_writes s); [discriminate|]. injection Hhd as <-. left. reflexivity.
    + destruct (is_wfail t s e) eqn:Ewf; [exact I|]. cbn [cov].
      destruct V as [V|V]; [left; lia|right].
      destruct (t_or_not t e) as [[a ->]|Hne].
      * (* own step of the writer: WWriting st -> WWritten, the write is logged *)
        unfold in_write in Hin. unfold is_wfail in Ewf.
        destruct (wpc_of t s) as [[| |st| |]|] eqn:Ewp; try discriminate.
        -- right. assert (a_ok a = true) as Hok.
           { destruct (a_ok a); [reflexivity|]. destruct t; discriminate. }
           pose proof (writes_step _ _ _ _ H) as Hws. cbn in Hws. rewrite Ewp, Hok in Hws.
           destruct V as [(st' & bi & ei & Hwr & Hc)|(Hwr & _)]; [|discriminate].
           inversion Hwr; subst st'. split.
           ++ pose proof (wpc_own _ _ _ _ _ H) as Ho. rewrite Ewp in Ho. destruct Ho as (s1 & Ho & _).
              cbn [wstep] in Ho. rewrite Hok in Ho. injection Ho as _ <-. reflexivity.
           ++ eexists _, bi, ei. rewrite Hws. split; [reflexivity|exact Hc].
        -- rewrite (act_own _ _ _ _ Ewp) in Ew. discriminate.
      * rewrite (wpc_frame _ _ _ _ t II H Hne).
        assert (s_writes s' = s_writes s) as Hws.
        { rewrite (writes_step _ _ _ _ H). destruct e as [| | | | | |t' a]; try reflexivity.
          assert (t' = other t) as ->.
          { destruct (other_cases t t') as [->| ->]; [exfalso; eapply Hne; reflexivity|reflexivity]. }
          pose proof (in_write_excl _ _ I3 Hin) as Hx. unfold in_write in Hx.
          destruct (wpc_of (other t) s) as [[]|]; try reflexivity. discriminate. }
        rewrite Hws. exact V.
  - cbn [cov] in *. destruct V as [V|(w & bi & ei & Hi & Hc)]; [left; lia|right].
    exists w, bi, ei. split; [eapply writes_incl; eauto|exact Hc].
Qed.

Lemma step_uinv cfg o ph d s e s' : uinv o ph d s -> step cfg s e = Some (Ok s') ->
  uinv o (ph_next ph s e) (d + popc (act_of s e) (s_pbl s)) s'.
Proof.
  intros UI H. pose proof (step_cov _ _ _ _ _ _ _ UI H) as V'.
  destruct UI as (A & C & P & T & U & V). pose proof A as [[II L] _].
  split; [eapply step_ainv; eauto|]. split; [eapply step_cinv; eauto|].
  split; [eapply step_pinv; eauto|].
  split; [eapply tracked_weaken; [apply lvl_next|]; eapply tracked_act; eauto; eapply step_act; eauto|].
  split; [|exact V'].
  intros Eph. destruct ph as [| | |t|]; cbn [ph_next] in Eph.
  - unfold sync_starts in Eph. eapply unsynced_act; [eapply step_act; eauto| |apply U; reflexivity].
    destruct (act_of s e) as [| | | | |[]| |]; try discriminate; exact I.
  - destruct (sync_completes s e); discriminate.
  - destruct (getstate_tid _); discriminate.
  - destruct (is_written _); [|destruct (is_wfail _ _ _)]; discriminate.
  - discriminate.
Qed.

Lemma run_uinv cfg o tr : forall ph d s s', uinv o ph d s -> run cfg s tr = Some (Ok s') ->
  uinv o (scan cfg ph s tr) (d + popsum cfg s tr) s'.
Proof.
  induction tr as [|e tr IH]; intros ph d s s' UI H; cbn in *.
  - injection H as <-. rewrite Nat.add_0_r. exact UI.
  - destruct (step cfg s e) as [[s1|]|] eqn:Es; try discriminate.
    rewrite Nat.add_assoc. eapply IH; [|exact H]. eapply step_uinv; eauto.
Qed.

(** the drive: a fair extension of length <= rank reaches PhDone (or the
    object's block is released) *)
Lemma uinv_pending o d s : uinv o Ph0 d s -> ~ o_block o < totalReleased (s_pbl s) ->
  synchronizedEpochs (s_pbl s) < length (epochSeeds (s_pbl s)).
Proof.
  intros (A & _ & _ & T & U & _) Hnr. pose proof (ainv_pbl _ A) as I.
  destruct (U eq_refl) as [U1|U1]; [contradiction|].
  destruct T as [T|(_ & _ & b & la & _ & _ & _ & Hs & _)]; [contradiction|].
  assert (o_epoch o - d < length (epochSeeds (s_pbl s))) by (apply nth_error_Some; congruence).
  pose proof (i_sync1 _ I). lia.
Qed.

Lemma drive cfg o : forall n ph d s, rank ph s <= n -> uinv o ph d s ->
  exists ext s' d', fair ext = true /\ length ext <= n /\ run cfg s ext = Some (Ok s')
    /\ uinv o (scan cfg ph s ext) d' s'
    /\ (scan cfg ph s ext = PhDone \/ o_block o < totalReleased (s_pbl s')).
Proof.
  induction n as [n IH] using lt_wf_ind. intros ph d s Hr UI.
  destruct (lt_dec (o_block o) (totalReleased (s_pbl s))) as [Hrel|Hnr].
  { exists [], s, d. splits; auto; try (cbn; lia). }
  assert (ph = PhDone \/ ph <> PhDone) as [->|Hnd] by (destruct ph; auto; right; discriminate).
  { exists [], s, d. splits; auto; try (cbn; lia). }
  pose proof UI as (A & C & P & _).
  destruct (progress cfg ph s A C P Hnd) as (s1 & Hrun & Hdec).
  { intros ->. eapply uinv_pending; eauto. }
  pose proof (run_uinv _ _ _ _ _ _ _ UI Hrun) as UI1. pose proof (proj2 (choose_ok ph s)) as Hpos.
  assert (n - length (choose ph s) < n) as Hlt by lia.
  assert (rank (scan cfg ph s (choose ph s)) s1 <= n - length (choose ph s)) as Hrk by lia.
  destruct (IH _ Hlt _ _ _ Hrk UI1) as (ext & s' & d' & Hf & Hl & Hr' & UI' & Hg).
  exists (choose ph s ++ ext), s', d'.
  split; [apply fair_app; [apply choose_ok|exact Hf]|]. split; [rewrite app_length; lia|].
  split; [rewrite (run_app _ _ _ _ _ Hrun); exact Hr'|].
  rewrite (scan_app _ _ _ _ _ _ Hrun). split; [exact UI'|exact Hg].
Qed.

Lemma reachable_cinv cfg alloc oldest init t0 s : reachable cfg alloc oldest init t0 s -> cinv s.
Proof.
  intros [tr H]. apply (run_preserves cfg (fun s => inv1 s /\ cinv s)) in H.
  - exact (proj2 H).
  - intros s1 e s2 [II C] Hs. destruct (step_inv1 _ _ _ _ II Hs) as (s3 & [= <-] & II' & _).
    split; [exact II'|exact (step_cinv _ _ _ _ II C Hs)].
  - split; [apply init_inv1|intros Hf; discriminate].
Qed.

Lemma uinv_fin cfg alloc oldest init t0 s1 k blk seed s1' abs size off p' :
  reachable cfg alloc oldest init t0 s1 ->
  step cfg s1 (EFinalize k blk seed) = Some (Ok s1') ->
  nth_error (s_uploads s1) k = Some (Some (PutAt abs, size)) ->
  put_finalize (PutAt abs) blk size seed (s_pbl s1) = Ok (p', FinOk off) ->
  uinv (obj_of (s_pbl s1) p' abs (off + size)) Ph0 0 s1'.
Proof.
  intros R Hs1 Hu Hf. set (o := obj_of (s_pbl s1) p' abs (off + size)).
  pose proof (fin_step _ _ _ _ _ _ _ _ _ _ Hs1 Hu Hf) as <-.
  pose proof (reachable_ainv _ _ _ _ _ _ R) as A1. pose proof (reachable_cinv _ _ _ _ _ _ R) as C1.
  pose proof (ainv_pbl _ A1) as I1.
  split; [eapply step_ainv; eauto|]. split; [eapply step_cinv; eauto; exact (proj1 (proj1 A1))|].
  destruct (fin_cases _ _ _ _ _ _ _ Hf) as [[_ Hn]|
    (abs0 & off0 & bumped & Ht & _ & _ & Hcl & _ & _ & _ & Fs & _ & Hnb & Ft & Fsy & _ & _ & _ & _ & Fc & _)];
    [exfalso; eapply Hn; reflexivity|].
  split; [cbn; rewrite Fc; exact Hcl|]. split; [exact (fin_tracked _ _ _ _ _ _ _ I1 Hf)|]. split; [|exact I].
  intros _. right. unfold o, obj_of. cbn [o_epoch]. rewrite Fsy, Fs, Nat.sub_0_r.
  pose proof (i_sync2 _ I1) as H2. pose proof (i_len _ I1) as Hl. destruct bumped.
  - rewrite app_length. cbn. lia.
  - destruct (Hnb eq_refl) as [Hne _]. lia.
Qed.

(** Props/C07.v: [every_upload_eventually_committed] *)
Theorem upload_eventually cfg alloc oldest init t0 s1 k blk seed s1' abs size off p' trp s :
  reachable cfg alloc oldest init t0 s1 ->
  step cfg s1 (EFinalize k blk seed) = Some (Ok s1') ->
  nth_error (s_uploads s1) k = Some (Some (PutAt abs, size)) ->
  put_finalize (PutAt abs) blk size seed (s_pbl s1) = Ok (p', FinOk off) ->
  run cfg s1' trp = Some (Ok s) ->
  exists ext s', fair ext = true /\ length ext <= 35 /\ run cfg s ext = Some (Ok s')
    /\ (abs < totalReleased (s_pbl s')
        \/ (scan cfg Ph0 s1' (trp ++ ext) = PhDone /\
            exists w bi ei, In w (s_writes s') /\
              covers (w_state w) bi (obj_of (s_pbl s1) p' abs (off + size)) ei)).
Proof.
  intros R Hs1 Hu Hf Hrun. set (o := obj_of (s_pbl s1) p' abs (off + size)).
  pose proof (uinv_fin _ _ _ _ _ _ _ _ _ _ _ _ _ _ R Hs1 Hu Hf) as UI. fold o in UI.
  pose proof (run_uinv _ _ _ _ _ _ _ UI Hrun) as UIs.
  destruct (drive cfg o 35 _ _ _ (rank_le _ _) UIs) as (ext & s' & d' & Hfair & Hlen & Hr & UI' & Hg).
  exists ext, s'. split; [exact Hfair|]. split; [exact Hlen|]. split; [exact Hr|].
  rewrite (scan_app _ _ _ _ _ _ Hrun).
  destruct Hg as [Hd|Hrel]; [|left; exact Hrel].
  destruct UI' as (_ & _ & _ & _ & _ & V). rewrite Hd in V. cbn [cov] in V.
  destruct V as [V|V]; [left; exact V|right]. split; [exact Hd|exact V].
Qed.
