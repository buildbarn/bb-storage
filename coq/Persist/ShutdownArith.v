(** Three facts about the fixed-width arithmetic of BlockReference. *)
From Coq Require Import NArith ZArith Lia.
From BBS Require Import Persist.PBL.

Lemma mod_diff M a d : (d < M -> ((a + d) mod M + M - a mod M) mod M = d)%N.
Proof.
  intros Hd. assert (HM : M <> 0%N) by lia. rewrite <- (N.add_mod_idemp_l a d) by exact HM.
  pose proof (N.mod_upper_bound a M HM) as Hr. set (r := (a mod M)%N) in *. clearbody r.
  destruct (N.lt_ge_cases (r + d) M) as [L|G].
  - rewrite (N.mod_small (r + d)) by exact L. replace (r + d + M - r)%N with (d + 1 * M)%N by lia.
    rewrite N.mod_add by exact HM. apply N.mod_small, Hd.
  - replace ((r + d) mod M)%N with (r + d - M)%N by (apply N.mod_unique with 1%N; lia).
    replace (r + d - M + M - r)%N with d by lia. apply N.mod_small, Hd.
Qed.

(** EpochID - oldestEpochID in uint32 arithmetic recovers the distance
    between two epoch numbers that are less than 2^32 apart. *)
Lemma u32_diff o x y : y <= x -> (N.of_nat (x - y) < 2 ^ 32)%N ->
  u32 (u32 (o + N.of_nat x) + 2 ^ 32 - u32 (u32 (o + N.of_nat y))) = N.of_nat (x - y).
Proof.
  intros H1 H2. replace (o + N.of_nat x)%N with (o + N.of_nat y + N.of_nat (x - y))%N by lia.
  unfold u32. rewrite N.mod_mod by (apply N.pow_nonzero; discriminate). apply mod_diff, H2.
Qed.

Lemma u16_small z : (0 <= z < 2 ^ 16)%Z -> u16z z = Z.to_N z.
Proof. intros H. unfold u16z. rewrite Z.mod_small by exact H. reflexivity. Qed.
