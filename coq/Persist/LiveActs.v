(** Persist/LiveActs.v — ghost bookkeeping over the event history of the
    combined transition system of Persist/Syncer.v (definitions of the model
    are untouched; everything here is a function of states and events).

    [act_of s e]: which PersistentBlockList call(s) the step [e] performs in
    state [s]; [step_act]: the block list of the successor state is exactly
    the result of that call.  [trace]: the list of executed steps
    (before, event, after) of a schedule, so that theorems can speak about
    "step i" and "the first step after i such that ...".
    [inv_last]: epochLastAbsoluteBlockIndex is determined by the blocks'
    epoch counts (needed to relate an epoch to the blocks it spans). *)
From Coq Require Import List NArith ZArith Bool Arith Lia.
From BBS Require Import Persist.PBL Persist.PBLProofs Persist.Syncer Persist.SyncerProofs.
Import ListNotations.

Inductive act :=
| ANone
| APush (alloc : option loc)
| APop
| AFin (tok : put_token) (blk : option Z) (size : Z) (seed : N)
| ASyncStart                       (* NotifySyncStarting(false); dataSyncer() is called *)
| ASyncDone (thenFinal : bool)     (* NotifySyncCompleted; if thenFinal: NotifySyncStarting(true), dataSyncer() again *)
| AGetState (t : tid)              (* GetPersistentState; WritePersistentState is called *)
| AWritten (t : tid).              (* NotifyPersistentStateWritten *)

Definition wact (t : tid) (w : wpc) : act :=
  match w with WGetState => AGetState t | WWritten => AWritten t | _ => ANone end.

Definition act_of (s : sys) (e : event) : act :=
  match e with
  | EPushBack a => APush a
  | EPopFront => APop
  | EPutStart _ _ => ANone
  | EFinalize k blk seed =>
      match nth_error (s_uploads s) k with
      | Some (Some (tok, size)) => AFin tok blk size seed
      | _ => ANone
      end
  | ETick _ => ANone
  | ECancel => ANone
  | EStep TR _ => match s_r s with RW w => wact TR w | _ => ANone end
  | EStep TP _ =>
      match s_p s with
      | PNotify _ => ASyncStart
      | PSyncRet k f => ASyncDone (negb k && negb f)
      | PW _ w => wact TP w
      | _ => ANone
      end
  end.

Definition apply_act (a : act) (p : pbl) : outcome pbl :=
  match a with
  | ANone => Ok p
  | APush al => Ok (fst (push_back al p))
  | APop => pop_front p
  | AFin tok blk size seed => obind (put_finalize tok blk size seed p) (fun r => Ok (fst r))
  | ASyncStart => Ok (notify_sync_starting false p)
  | ASyncDone b =>
      Ok (if b then notify_sync_starting true (notify_sync_completed p) else notify_sync_completed p)
  | AGetState _ => obind (get_persistent_state p) (fun r => Ok (fst r))
  | AWritten _ => notify_state_written p
  end.

Lemma wstep_act cfg me w a s s1 w' : wstep cfg me w a s = Some (Ok (s1, w')) ->
  apply_act (wact me w) (s_pbl s) = Ok (s_pbl s1).
Proof.
  unfold wstep. destruct w; cbn.
  - destruct (s_store s); [discriminate|]. intros [= <-]. reflexivity.
  - destruct (get_persistent_state _) as [[p' st]|]; [|discriminate]. intros [= <-]. reflexivity.
  - destruct (a_ok a); intros [= <-]; reflexivity.
  - destruct (notify_state_written _); [|discriminate]. intros [= <-]. reflexivity.
  - destruct (_ <=? _)%N; [|discriminate]. intros [= <-]. reflexivity.
Qed.

Lemma env_or_step e : (forall t a, e <> EStep t a) \/ exists t a, e = EStep t a.
Proof. destruct e; try (left; intros t0 a0 H0; discriminate H0). right. eauto. Qed.

Lemma t_or_not t e : (exists a, e = EStep t a) \/ (forall a, e <> EStep t a).
Proof.
  destruct e as [| | | | | |t' a]; try (right; intros a0 H0; discriminate H0).
  destruct t, t'; try (right; intros a0 H0; discriminate H0); left; eauto.
Qed.

Lemma p_frame cfg s e s' : inv1 s -> step cfg s e = Some (Ok s') -> (forall a, e <> EStep TP a) -> s_p s' = s_p s.
Proof.
  intros II H Hne. destruct (env_or_step e) as [Hne'|[t [a ->]]]; [apply (env_frame cfg s _ s' Hne' H)|].
  destruct t; [|exfalso; eapply Hne; reflexivity]. cbn [step] in H. eapply rstep_frame; eauto.
Qed.

Lemma r_frame cfg s e s' : inv1 s -> step cfg s e = Some (Ok s') -> (forall a, e <> EStep TR a) -> s_r s' = s_r s.
Proof.
  intros II H Hne. destruct (env_or_step e) as [Hne'|[t [a ->]]]; [apply (env_frame cfg s _ s' Hne' H)|].
  destruct t; [exfalso; eapply Hne; reflexivity|]. cbn [step] in H. eapply pstep_frame; eauto.
Qed.

Lemma step_act cfg s e s' : step cfg s e = Some (Ok s') ->
  apply_act (act_of s e) (s_pbl s) = Ok (s_pbl s').
Proof.
  destruct e as [alloc| |index size|k blk seed|d| |t a]; cbn [step act_of].
  - intros [= <-]. reflexivity.
  - destruct (blocks (s_pbl s)); [discriminate|]. cbn. destruct (pop_front _); [|discriminate].
    intros [= <-]. reflexivity.
  - destruct (_ || _); [|discriminate]. destruct (put_start _ _); [|discriminate].
    intros [= <-]. reflexivity.
  - destruct (nth_error _ _) as [[[tok sz]|]|]; try discriminate. cbn.
    destruct (put_finalize _ _ _ _ _) as [[p' fr]|]; [|discriminate]. intros [= <-]. reflexivity.
  - intros [= <-]. reflexivity.
  - intros [= <-]. reflexivity.
  - destruct t.
    + unfold rstep. destruct (s_r s) as [|ch|w].
      * intros [= <-]. reflexivity.
      * destruct (is_closed _ _); [|discriminate]. intros [= <-]. reflexivity.
      * destruct (wstep cfg TR w a s) as [[[s1 w']|]|] eqn:Ew; try discriminate.
        pose proof (wstep_act _ _ _ _ _ _ _ Ew) as Ha.
        destruct w'; intros [= <-]; exact Ha.
    + unfold pstep.
      destruct (s_p s) as [|ch|ch|dl|keep|keep final|keep final|keep final dl|keep w|].
      * intros [= <-]. reflexivity.
      * destruct (is_closed _ _); intros [= <-]; reflexivity.
      * destruct (s_cancel s && _); [|destruct (is_closed _ _); [|discriminate]];
          intros [= <-]; reflexivity.
      * destruct (s_cancel s && _); [|destruct (_ && _)%bool; [|discriminate]];
          intros [= <-]; reflexivity.
      * intros [= <-]. reflexivity.
      * destruct (a_ok a); intros [= <-]; reflexivity.
      * cbn. destruct (negb keep && negb final); intros [= <-]; reflexivity.
      * destruct (_ <=? _)%N; [|discriminate]. intros [= <-]. reflexivity.
      * destruct (wstep cfg TP w a s) as [[[s1 w']|]|] eqn:Ew; try discriminate.
        pose proof (wstep_act _ _ _ _ _ _ _ Ew) as Ha.
        destruct w'; intros [= <-]; exact Ha.
      * discriminate.
Qed.

Fixpoint trace (cfg : config) (s : sys) (tr : list event) : list (sys * event * sys) :=
  match tr with
  | [] => []
  | e :: tr' =>
      match step cfg s e with
      | Some (Ok s') => (s, e, s') :: trace cfg s' tr'
      | _ => []
      end
  end.

Lemma trace_nth cfg tr : forall s i a e b,
  nth_error (trace cfg s tr) i = Some (a, e, b) ->
  run cfg s (firstn i tr) = Some (Ok a) /\ step cfg a e = Some (Ok b)
  /\ skipn (S i) (trace cfg s tr) = trace cfg b (skipn (S i) tr)
  /\ firstn i (trace cfg s tr) = trace cfg s (firstn i tr)
  /\ nth_error tr i = Some e.
Proof.
  induction tr as [|e0 tr IH]; intros s i a e b H.
  - destruct i; discriminate.
  - cbn [trace] in *. destruct (step cfg s e0) as [[s1|]|] eqn:Es; try (destruct i; discriminate).
    destruct i as [|i].
    + cbn in H. inversion H; subst. cbn. rewrite Es. auto.
    + cbn [nth_error] in H. destruct (IH _ _ _ _ _ H) as [H1 [H2 [H3 [H4 H5]]]].
      cbn [firstn run]. rewrite Es. splits; auto.
      cbn [trace]. rewrite Es. cbn [firstn]. rewrite H4. reflexivity.
Qed.

Lemma run_app cfg tr1 : forall s tr2 s1, run cfg s tr1 = Some (Ok s1) ->
  run cfg s (tr1 ++ tr2) = run cfg s1 tr2.
Proof.
  induction tr1 as [|e tr1 IH]; intros s tr2 s1 H; cbn in *.
  - injection H as <-. reflexivity.
  - destruct (step cfg s e) as [[s'|]|]; try discriminate. apply IH. exact H.
Qed.

Lemma run_preserves cfg (P : sys -> Prop) :
  (forall s e s', P s -> step cfg s e = Some (Ok s') -> P s') ->
  forall tr s s', P s -> run cfg s tr = Some (Ok s') -> P s'.
Proof.
  intros Hstep. induction tr as [|e tr IH]; intros s s' I H; cbn in H.
  - injection H as <-. exact I.
  - destruct (step cfg s e) as [[s1|]|] eqn:Es; try discriminate. eapply IH; [|exact H]. eapply Hstep; eauto.
Qed.

Lemma reachable_run cfg alloc oldest init t0 s tr s' :
  reachable cfg alloc oldest init t0 s -> run cfg s tr = Some (Ok s') -> reachable cfg alloc oldest init t0 s'.
Proof.
  intros [tr0 H0] H. exists (tr0 ++ tr). rewrite (run_app _ _ _ _ _ H0). exact H.
Qed.

Lemma run1 cfg s e s' : step cfg s e = Some (Ok s') -> run cfg s [e] = Some (Ok s').
Proof. intros H. cbn. rewrite H. reflexivity. Qed.

Lemma reachable_step cfg alloc oldest init t0 s e s' :
  reachable cfg alloc oldest init t0 s -> step cfg s e = Some (Ok s') -> reachable cfg alloc oldest init t0 s'.
Proof. intros R H. exact (reachable_run _ _ _ _ _ s [e] s' R (run1 _ _ _ _ H)). Qed.

Lemma reachable_init cfg alloc oldest init t0 :
  reachable cfg alloc oldest init t0 (init_sys (fst (pbl_new alloc oldest init)) t0).
Proof. exists []. reflexivity. Qed.

Fixpoint lasts_of (base : nat) (bs : list binfo) : list nat :=
  match bs with
  | [] => []
  | b :: r => repeat base (b_epochs b) ++ lasts_of (S base) r
  end.

Definition inv_last (p : pbl) : Prop := epochLast p = lasts_of (totalReleased p) (blocks p).

Lemma lasts_of_app base a b : lasts_of base (a ++ b) = lasts_of base a ++ lasts_of (base + length a) b.
Proof.
  revert base. induction a as [|x a IH]; intros base; cbn.
  - rewrite Nat.add_0_r. reflexivity.
  - rewrite IH, <- app_assoc. replace (S base + length a) with (base + S (length a)) by lia. reflexivity.
Qed.

Lemma lasts_of_map f base bs : (forall b, b_epochs (f b) = b_epochs b) ->
  lasts_of base (map f bs) = lasts_of base bs.
Proof.
  intros Hf. revert base. induction bs as [|b r IH]; intros base; cbn; [reflexivity|].
  rewrite Hf, IH. reflexivity.
Qed.

Lemma lasts_of_set_written base bs i w : lasts_of base (set_written bs i w) = lasts_of base bs.
Proof.
  revert base i. induction bs as [|b r IH]; intros base [|i]; cbn; auto.
  - destruct (b_written b <? w)%Z; reflexivity.
  - rewrite IH. reflexivity.
Qed.

Lemma repeat_snoc {A} (x : A) n : repeat x (S n) = repeat x n ++ [x].
Proof. induction n; cbn in *; [reflexivity|]. rewrite <- IHn. reflexivity. Qed.

Lemma lasts_of_bump base bs : bs <> [] ->
  lasts_of base (bump_last_epoch_count bs) = lasts_of base bs ++ [base + length bs - 1].
Proof.
  revert base. induction bs as [|b r IH]; [congruence|]. intros base _.
  destruct r as [|b' r'].
  - cbn [bump_last_epoch_count lasts_of b_epochs length]. rewrite !app_nil_r, repeat_snoc.
    replace (base + 1 - 1) with base by lia. reflexivity.
  - change (bump_last_epoch_count (b :: b' :: r')) with (b :: bump_last_epoch_count (b' :: r')).
    cbn [lasts_of]. rewrite IH by congruence. rewrite <- app_assoc. cbn [length].
    replace (S base + S (length r') - 1) with (base + S (S (length r')) - 1) by lia. reflexivity.
Qed.

Lemma restore_lasts alloc init : forall n bl seeds lasts,
  restore_blocks alloc init n = (bl, seeds, lasts) -> lasts = lasts_of n bl.
Proof.
  induction init as [|bs rest IH]; intros n bl seeds lasts H; cbn in H.
  - inversion H. reflexivity.
  - destruct (alloc (bs_loc bs) (bs_off bs)).
    + destruct (restore_blocks alloc rest (S n)) as [[bl' seeds'] lasts'] eqn:E.
      inversion H; subst. cbn. rewrite (IH _ _ _ _ E). reflexivity.
    + inversion H. reflexivity.
Qed.

Lemma pbl_new_inv_last alloc oldest init : inv_last (fst (pbl_new alloc oldest init)).
Proof.
  unfold pbl_new, inv_last. destruct (restore_blocks alloc init 0) as [[bl seeds] lasts] eqn:E.
  cbn. exact (restore_lasts _ _ _ _ _ _ E).
Qed.

Lemma act_inv_last a p p' : pbl_inv p -> inv_last p -> apply_act a p = Ok p' -> inv_last p'.
Proof.
  intros I L. unfold inv_last in *. destruct a as [|al| |tok blk size seed| |b|t|t]; cbn [apply_act].
  - intros [= <-]. exact L.
  - intros [= <-]. unfold push_back. destruct (closedForWriting p); [exact L|].
    destruct al; [|exact L]. cbn. rewrite lasts_of_app. cbn. rewrite app_nil_r. exact L.
  - unfold pop_front. destruct (blocks p) as [|fb rest] eqn:Eb; [discriminate|].
    destruct (nc_unblock _ _) as [[rw h1]|]; [|discriminate]. cbn [obind].
    destruct (_ || _); [discriminate|].
    match goal with |- context [if ?c then nc_block _ _ else _] => destruct c end;
      [destruct (nc_block _ _) as [pw h2]|]; intros H; inversion H; subst; clear H; cbn;
      rewrite L; cbn [lasts_of]; rewrite skipn_app, repeat_length, Nat.sub_diag; cbn [skipn];
      rewrite (skipn_all2 (repeat _ _)) by (rewrite repeat_length; lia); reflexivity.
  - unfold put_finalize.
    destruct tok as [|abs]; [intros [= <-]; exact L|].
    destruct blk as [off|]; [|intros [= <-]; exact L].
    destruct (closedForWriting p); [intros [= <-]; exact L|].
    destruct (abs <? totalReleased p); [intros [= <-]; exact L|].
    destruct (Nat.leb_spec (length (blocks p)) (abs - totalReleased p)) as [Hle|Hlt]; [discriminate|].
    match goal with |- obind (obind ?b _) _ = _ -> _ => destruct b as [[|]|] end; cbn [obind].
    + destruct (nc_unblock _ _) as [[pw h1]|]; [|discriminate]. cbn [obind].
      intros H; inversion H; subst; clear H. cbn.
      rewrite lasts_of_bump.
      * rewrite lasts_of_set_written, set_written_length, <- L. reflexivity.
      * intros E. apply (f_equal (@length _)) in E. rewrite set_written_length in E. cbn in E. lia.
    + intros H; inversion H; subst; clear H. cbn. rewrite lasts_of_set_written. exact L.
    + discriminate.
  - intros [= <-]. cbn. rewrite lasts_of_map; auto.
  - intros [= <-]. unfold notify_sync_completed.
    destruct (_ =? _); [destruct (nc_block _ _)|]; destruct b; cbn; rewrite ?map_map, lasts_of_map; auto.
  - unfold get_persistent_state. destruct (gps_loop _ _ _ _); [|discriminate].
    intros [= <-]. exact L.
  - unfold notify_state_written. destruct (_ <? _); [discriminate|].
    destruct (skipn _ _); [destruct (nc_block _ _)|]; intros [= <-]; exact L.
Qed.

Definition linv (s : sys) : Prop := inv1 s /\ inv_last (s_pbl s).

Lemma step_linv cfg s e s' : linv s -> step cfg s e = Some (Ok s') -> linv s'.
Proof.
  intros [I L] H. destruct (step_inv1 _ _ _ _ I H) as [s1 [E [I' _]]]. inversion E; subst s1.
  split; [exact I'|]. eapply act_inv_last; [exact (proj1 I)|exact L|]. eapply step_act; eauto.
Qed.

Lemma run_linv cfg tr : forall s s', linv s -> run cfg s tr = Some (Ok s') -> linv s'.
Proof. apply run_preserves, step_linv. Qed.

Lemma reachable_linv cfg alloc oldest init t0 s : reachable cfg alloc oldest init t0 s -> linv s.
Proof.
  intros [tr H]. eapply run_linv; [|exact H]. split; [apply init_inv1|apply pbl_new_inv_last].
Qed.
