(** Persist/CrashAllocProofs.v — a record that resolves after a crash + restart
    (first life) resolves to the device region its upload was allocated in;
    allocation facts of the instrumented transition system of CrashLts.v.
    [eff] / [cstep_eff] say what each event of that system does to every field
    of the state; the step proofs of the invariants, here and in the Epoch,
    Offsets and Reuse files, start from it.

    No model definitions; no axioms. *)
From Coq Require Import List NArith ZArith Bool Arith Lia.
From Coq Require DecimalNat.
From BBS Require Import Persist.PBL Persist.PBLProofs Persist.Syncer Persist.Crash Persist.CrashLts.
Import ListNotations.

Set Warnings "-abstract-large-number".

Ltac splits := repeat match goal with |- _ /\ _ => split end.
Ltac inv H := inversion H; subst; clear H.

Lemma skipn_skipn' {A} a b (l : list A) : skipn a (skipn b l) = skipn (b + a) l.
Proof.
  revert l. induction b; intros l; cbn; [reflexivity|].
  destruct l; [apply skipn_nil|]. apply IHb.
Qed.

Lemma nth_error_skipn' {A} a (l : list A) e : nth_error (skipn a l) e = nth_error l (a + e).
Proof.
  revert l. induction a; intros l; cbn; [reflexivity|].
  destruct l; [destruct e; reflexivity|]. apply IHa.
Qed.

Lemma nth_error_app_some {A} (l t : list A) j x :
  nth_error l j = Some x -> nth_error (l ++ t) j = Some x.
Proof.
  intros H. rewrite nth_error_app1; [exact H|]. apply nth_error_Some. congruence.
Qed.

Lemma nth_error_snoc {A} (l : list A) x : nth_error (l ++ [x]) (length l) = Some x.
Proof. rewrite nth_error_app2 by lia. rewrite Nat.sub_diag. reflexivity. Qed.

Lemma nth_error_nil' {A} j : nth_error (@nil A) j = None.
Proof. destruct j; reflexivity. Qed.

Lemma in_firstn_nth {A} k (l : list A) x :
  In x (firstn k l) -> exists e, e < k /\ nth_error l e = Some x.
Proof.
  revert l. induction k; intros l H; cbn in H; [contradiction|].
  destruct l as [|y l]; [contradiction|]. destruct H as [->|H].
  - exists 0. split; [lia|reflexivity].
  - destruct (IHk _ H) as [e [He Hn]]. exists (S e). split; [lia|exact Hn].
Qed.

Lemma nth_error_repeat_inv {A} (a : A) m j x : nth_error (repeat a m) j = Some x -> x = a /\ j < m.
Proof.
  intros H. split.
  - apply nth_error_In in H. eapply repeat_spec; eauto.
  - assert (j < length (repeat a m)) by (apply nth_error_Some; congruence).
    rewrite repeat_length in H0. exact H0.
Qed.

Lemma NoDup_nth_eq {A} (l : list A) i j x :
  NoDup l -> nth_error l i = Some x -> nth_error l j = Some x -> i = j.
Proof.
  intros Hn Hi Hj. rewrite NoDup_nth_error in Hn. apply Hn.
  - apply nth_error_Some. congruence.
  - congruence.
Qed.

Lemma map_upd_nth {A B} (f : A -> B) (g : A -> A) l k :
  (forall x, f (g x) = f x) -> map f (upd_nth l k g) = map f l.
Proof.
  intros H. revert k. induction l as [|x l IH]; intros [|k]; cbn; auto.
  - rewrite H. reflexivity.
  - rewrite IH. reflexivity.
Qed.

Lemma upd_nth_length {A} (g : A -> A) l k : length (upd_nth l k g) = length l.
Proof. revert k. induction l as [|x l IH]; intros [|k]; cbn; auto. Qed.

Lemma nth_error_upd_nth {A} (g : A -> A) l k j :
  nth_error (upd_nth l k g) j = if Nat.eqb j k then option_map g (nth_error l j) else nth_error l j.
Proof.
  revert k j. induction l as [|x l IH]; intros k j.
  - destruct k; cbn; rewrite nth_error_nil'; destruct (Nat.eqb j _); reflexivity.
  - destruct k as [|k], j as [|j]; cbn; auto.
Qed.

Lemma slot_get_in {R} (ws : list (nat * R)) s acc r :
  slot_get ws s acc = Some r -> acc = Some r \/ exists s', In (s', r) ws.
Proof.
  revert acc. induction ws as [|[s' r'] t IH]; intros acc H; cbn in H; [left; exact H|].
  destruct (IH _ H) as [E|[s2 Hi]].
  - destruct (Nat.eqb s' s).
    + inv E. right. exists s'. left; reflexivity.
    + left; exact E.
  - right. exists s2. right; exact Hi.
Qed.

Lemma select_in {T} bs (xs : list T) x : In x (select bs xs) -> In x xs.
Proof.
  revert bs. induction xs as [|y xs IH]; intros bs H; cbn in H.
  - destruct bs; contradiction.
  - destruct bs as [|[|] bs]; [contradiction| |].
    + destruct H as [->|H]; [left; reflexivity|right; eapply IH; eauto].
    + right; eapply IH; eauto.
Qed.

Lemma index_writes_in {R} (l : list (io R)) s r : In (s, r) (index_writes l) -> In (IoIndex s r) l.
Proof.
  induction l as [|e l IH]; cbn; [auto|].
  destruct e; cbn; intros H; try (right; apply IH; exact H).
  destruct H as [E|H]; [inv E; left; reflexivity|right; apply IH; exact H].
Qed.

Lemma in_firstn {A} n (l : list A) x : In x (firstn n l) -> In x l.
Proof. intros H. rewrite <- (firstn_skipn n l). apply in_or_app. left; exact H. Qed.

Lemma NoDup_snoc {A} (l : list A) x : NoDup l -> ~ In x l -> NoDup (l ++ [x]).
Proof.
  intros H Hx. induction H as [|y l Hy H IH]; cbn.
  - constructor; [apply in_nil|constructor].
  - constructor.
    + intros Hin. apply in_app_iff in Hin. destruct Hin as [Hin|[Hin|[]]]; [auto|]. subst. apply Hx. cbn. auto.
    + apply IH. intros Hin. apply Hx. cbn. auto.
Qed.

Lemma fresh_seeds c seed : fresh c seed = true -> ~ In seed (cs_seeds c) /\ ~ In seed (cs_old c).
Proof.
  unfold fresh. intros H. apply andb_prop in H. destruct H as [H1 H2].
  assert (G : forall l, negb (existsb (N.eqb seed) l) = true -> ~ In seed l).
  { intros l Hl Hin. apply negb_true_iff in Hl. assert (existsb (N.eqb seed) l = true); [|congruence].
    apply existsb_exists. exists seed. split; [exact Hin|apply N.eqb_refl]. }
  split; apply G; assumption.
Qed.

Fixpoint elast_of (n : nat) (es : list nat) : list nat :=
  match es with
  | [] => []
  | e :: r => repeat n e ++ elast_of (S n) r
  end.

Lemma elast_bound es : forall n j x, nth_error (elast_of n es) j = Some x -> n <= x < n + length es.
Proof.
  induction es as [|e r IH]; intros n j x H; cbn in H.
  - rewrite nth_error_nil' in H. discriminate.
  - destruct (Nat.lt_ge_cases j e) as [Hlt|Hge].
    + rewrite nth_error_app1 in H by (rewrite repeat_length; exact Hlt).
      apply nth_error_repeat_inv in H. cbn. lia.
    + rewrite nth_error_app2 in H by (rewrite repeat_length; exact Hge).
      apply IH in H. cbn. lia.
Qed.

Lemma elast_sorted es : forall n j1 j2 x1 x2, j1 <= j2 ->
  nth_error (elast_of n es) j1 = Some x1 -> nth_error (elast_of n es) j2 = Some x2 -> x1 <= x2.
Proof.
  induction es as [|e r IH]; intros n j1 j2 x1 x2 Hle H1 H2; cbn in H1, H2.
  - rewrite nth_error_nil' in H1. discriminate.
  - destruct (Nat.lt_ge_cases j1 e) as [Hlt|Hge].
    + rewrite nth_error_app1 in H1 by (rewrite repeat_length; exact Hlt).
      apply nth_error_repeat_inv in H1. destruct H1 as [-> _].
      change (nth_error (elast_of n (e :: r)) j2 = Some x2) in H2. apply elast_bound in H2. lia.
    + rewrite nth_error_app2 in H1 by (rewrite repeat_length; exact Hge).
      rewrite nth_error_app2 in H2 by (rewrite repeat_length; lia).
      rewrite repeat_length in H1, H2. eapply (IH (S n) (j1 - e) (j2 - e)); eauto. lia.
Qed.

Lemma elast_app es1 es2 n : elast_of n (es1 ++ es2) = elast_of n es1 ++ elast_of (n + length es1) es2.
Proof.
  revert n. induction es1 as [|e r IH]; intros n; cbn.
  - rewrite Nat.add_0_r. reflexivity.
  - rewrite IH, <- app_assoc. replace (n + S (length r)) with (S n + length r) by lia. reflexivity.
Qed.

Fixpoint bumpl (es : list nat) : list nat :=
  match es with
  | [] => []
  | [e] => [S e]
  | e :: r => e :: bumpl r
  end.

Lemma elast_bumpl es : es <> [] -> forall n, elast_of n (bumpl es) = elast_of n es ++ [n + length es - 1].
Proof.
  induction es as [|e r IH]; [congruence|]. intros _ n. destruct r as [|e' r'].
  - cbn. rewrite !app_nil_r. replace (n + 1 - 1) with n by lia.
    change (n :: repeat n e) with (repeat n (S e)).
    replace (S e) with (e + 1) by lia. rewrite repeat_app. reflexivity.
  - change (bumpl (e :: e' :: r')) with (e :: bumpl (e' :: r')).
    cbn [elast_of]. rewrite IH by congruence. cbn [elast_of length].
    rewrite <- !app_assoc. replace (S n + S (length r') - 1) with (n + S (S (length r')) - 1) by lia.
    reflexivity.
Qed.

Lemma map_epochs_bump bs : map b_epochs (bump_last_epoch_count bs) = bumpl (map b_epochs bs).
Proof.
  induction bs as [|b r IH]; [reflexivity|]. destruct r as [|b' r']; [reflexivity|].
  change (bump_last_epoch_count (b :: b' :: r')) with (b :: bump_last_epoch_count (b' :: r')).
  cbn [map]. rewrite IH. reflexivity.
Qed.

Lemma map_loc_bump bs : map b_loc (bump_last_epoch_count bs) = map b_loc bs.
Proof.
  induction bs as [|b r IH]; [reflexivity|]. destruct r as [|b' r']; [reflexivity|].
  change (bump_last_epoch_count (b :: b' :: r')) with (b :: bump_last_epoch_count (b' :: r')).
  cbn [map]. rewrite IH. reflexivity.
Qed.

Lemma map_epochs_setw bs i w : map b_epochs (set_written bs i w) = map b_epochs bs.
Proof.
  revert i. induction bs as [|b r IH]; intros [|i]; cbn; auto.
  - destruct (b_written b <? w)%Z; reflexivity.
  - rewrite IH. reflexivity.
Qed.

Lemma map_loc_setw bs i w : map b_loc (set_written bs i w) = map b_loc bs.
Proof.
  revert i. induction bs as [|b r IH]; intros [|i]; cbn; auto.
  - destruct (b_written b <? w)%Z; reflexivity.
  - rewrite IH. reflexivity.
Qed.

Lemma pop_front_spec p p' : pop_front p = Ok p' ->
  exists b rest, blocks p = b :: rest /\ blocks p' = rest
    /\ b_epochs b <= length (epochSeeds p) /\ b_epochs b <= length (epochLast p)
    /\ epochSeeds p' = skipn (b_epochs b) (epochSeeds p)
    /\ epochLast p' = skipn (b_epochs b) (epochLast p)
    /\ totalReleased p' = S (totalReleased p)
    /\ toRelease p' = toRelease p ++ [b_loc b] /\ releasing p' = releasing p
    /\ releasedLog p' = releasedLog p
    /\ closedForWriting p' = closedForWriting p.
Proof.
  unfold pop_front. destruct (blocks p) as [|b rest]; [discriminate|].
  destruct (nc_unblock (releaseWakeup p) (heap p)) as [[rw h1]|]; [|discriminate]. cbn [obind].
  destruct (Nat.ltb_spec (length (epochSeeds p)) (b_epochs b)); [discriminate|].
  destruct (Nat.ltb_spec (length (epochLast p)) (b_epochs b)); [discriminate|]. cbn [orb].
  match goal with |- context [if ?c then nc_block _ _ else _] => destruct c end.
  - destruct (nc_block (putWakeup p) h1) as [pw h2]. intros HH; inv HH. cbn.
    exists b, rest. splits; auto.
  - intros HH; inv HH. cbn. exists b, rest. splits; auto.
Qed.

Inductive fin_shape (p p' : pbl) (tok : put_token) (seed : N) (fr : fin_result) : Prop :=
| fs_none : p' = p -> (forall o, fr <> FinOk o) -> fin_shape p p' tok seed fr
| fs_ok abs off :
    tok = PutAt abs -> fr = FinOk off ->
    totalReleased p <= abs -> abs - totalReleased p < length (blocks p) ->
    totalReleased p' = totalReleased p -> toRelease p' = toRelease p ->
    releasedLog p' = releasedLog p ->
    map b_loc (blocks p') = map b_loc (blocks p) ->
    ( (epochSeeds p' = epochSeeds p /\ epochLast p' = epochLast p
       /\ map b_epochs (blocks p') = map b_epochs (blocks p)
       /\ exists n' la, length (epochLast p) = S n' /\ nth_error (epochLast p) n' = Some la /\ abs <= la)
      \/
      (epochSeeds p' = epochSeeds p ++ [seed]
       /\ epochLast p' = epochLast p ++ [totalReleased p + length (blocks p) - 1]
       /\ map b_epochs (blocks p') = bumpl (map b_epochs (blocks p))) ) ->
    closedForWriting p' = closedForWriting p -> releasing p' = releasing p ->
    fin_shape p p' tok seed fr.

Lemma put_finalize_cases tok blk size seed p p' fr : put_finalize tok blk size seed p = Ok (p', fr) ->
  (p' = p /\ forall o, fr <> FinOk o) \/
  exists abs off, tok = PutAt abs /\ blk = Some off /\ fr = FinOk off /\ closedForWriting p = false /\
    totalReleased p <= abs /\ abs - totalReleased p < length (blocks p) /\
    let bl1 := set_written (blocks p) (abs - totalReleased p) (off + size)%Z in
    ((p' = set_blocks p bl1 /\ length (epochLast p) <> synchronizingEpochs p /\
      exists n' la, length (epochLast p) = S n' /\ nth_error (epochLast p) n' = Some la /\ abs <= la) \/
     exists pw h1,
       p' = mkPbl false (bump_last_epoch_count bl1) (epochSeeds p ++ [seed])
              (epochLast p ++ [totalReleased p + length bl1 - 1]) (totalReleased p) (oldestEpochID p)
              (synchronizingEpochs p) (synchronizedEpochs p) pw (toRelease p) (releasing p)
              (releaseWakeup p) h1 (releasedLog p)).
Proof.
  unfold put_finalize.
  destruct tok as [|abs]; [intros HH; inv HH; left; split; [reflexivity|discriminate]|].
  destruct blk as [off|]; [|intros HH; inv HH; left; split; [reflexivity|discriminate]].
  destruct (closedForWriting p) eqn:Ec; [intros HH; inv HH; left; split; [reflexivity|discriminate]|].
  destruct (Nat.ltb_spec abs (totalReleased p)); [intros HH; inv HH; left; split; [reflexivity|discriminate]|].
  destruct (Nat.leb_spec (length (blocks p)) (abs - totalReleased p)); [discriminate|].
  intros HH. right. exists abs, off. cbv zeta.
  destruct (Nat.eqb_spec (length (epochLast p)) (synchronizingEpochs p)).
  - cbn [obind] in HH. destruct (nc_unblock (putWakeup p) (heap p)) as [[pw h1]|]; [|discriminate].
    cbn [obind] in HH. inv HH. splits; auto. right. eauto.
  - destruct (length (epochLast p)) as [|n'] eqn:El; [discriminate|].
    destruct (nth_error (epochLast p) n') as [la|] eqn:En; [|discriminate].
    cbn [obind] in HH. destruct (Nat.ltb_spec la abs).
    + destruct (nc_unblock (putWakeup p) (heap p)) as [[pw h1]|]; [|discriminate].
      cbn [obind] in HH. inv HH. splits; auto. right. eauto.
    + inv HH. splits; auto. left. splits; auto. exists n', la. auto.
Qed.

Lemma put_finalize_spec tok blk size seed p p' fr :
  put_finalize tok blk size seed p = Ok (p', fr) -> fin_shape p p' tok seed fr.
Proof.
  intros H. destruct (put_finalize_cases _ _ _ _ _ _ _ H)
    as [[-> Hn]|(abs & off & -> & -> & -> & Ec & Hle & Hlt & [(-> & Hne & Hla)|(pw & h1 & ->)])].
  - apply fs_none; [reflexivity|exact Hn].
  - eapply fs_ok; try reflexivity; cbn; auto; [apply map_loc_setw|].
    left. splits; auto. apply map_epochs_setw.
  - eapply fs_ok; try reflexivity; cbn; auto.
    + rewrite map_loc_bump. apply map_loc_setw.
    + right. rewrite set_written_length, map_epochs_bump, map_epochs_setw. auto.
Qed.

(** the steps of the two syncer threads change nothing the theorems look at,
    except handing a prefix of [toRelease] to [releasedLog] *)
Definition pbl_same (p p' : pbl) : Prop :=
  map b_loc (blocks p') = map b_loc (blocks p) /\
  map b_epochs (blocks p') = map b_epochs (blocks p) /\
  epochSeeds p' = epochSeeds p /\ epochLast p' = epochLast p /\
  totalReleased p' = totalReleased p /\
  (closedForWriting p = true -> closedForWriting p' = true) /\
  exists rel, releasedLog p' = releasedLog p ++ rel /\ toRelease p = rel ++ toRelease p'.

Lemma pbl_same_refl p : pbl_same p p.
Proof. unfold pbl_same. splits; auto. exists []. rewrite app_nil_r. auto. Qed.

Lemma pbl_same_trans p1 p2 p3 : pbl_same p1 p2 -> pbl_same p2 p3 -> pbl_same p1 p3.
Proof.
  intros (A1 & A2 & A3 & A4 & A5 & Ac & r1 & A6 & A7) (B1 & B2 & B3 & B4 & B5 & Bc & r2 & B6 & B7).
  unfold pbl_same. splits; try congruence; auto.
  exists (r1 ++ r2). rewrite B6, A6, A7, B7, !app_assoc. auto.
Qed.

Lemma nss_same f p : pbl_same p (notify_sync_starting f p).
Proof.
  unfold pbl_same. cbn. rewrite !map_map. cbn. splits; auto.
  - intros ->. destruct f; reflexivity.
  - exists []. rewrite app_nil_r. auto.
Qed.

Lemma nsc_same p : pbl_same p (notify_sync_completed p).
Proof.
  unfold notify_sync_completed.
  destruct (if synchronizingEpochs p =? length (epochSeeds p) then nc_block (putWakeup p) (heap p)
            else (putWakeup p, heap p)) as [pw h1].
  unfold pbl_same. cbn. rewrite !map_map. cbn. splits; auto.
  exists []. rewrite app_nil_r. auto.
Qed.

Definition wsame (p p' : pbl) : Prop :=
  blocks p' = blocks p /\ epochSeeds p' = epochSeeds p /\ epochLast p' = epochLast p /\
  totalReleased p' = totalReleased p /\ synchronizingEpochs p' = synchronizingEpochs p /\
  synchronizedEpochs p' = synchronizedEpochs p /\ closedForWriting p' = closedForWriting p /\
  exists rel, releasedLog p' = releasedLog p ++ rel /\ toRelease p = rel ++ toRelease p'.

Lemma wsame_refl p : wsame p p.
Proof. unfold wsame. splits; auto. exists []. rewrite app_nil_r. auto. Qed.

Lemma wsame_same p p' : wsame p p' -> pbl_same p p'.
Proof. intros (W1 & W2 & W3 & W4 & _ & _ & W7 & W8). unfold pbl_same. rewrite W1, W2, W3, W4, W7. splits; auto. Qed.

Lemma gps_wsame p p' st : get_persistent_state p = Ok (p', st) -> wsame p p'.
Proof.
  unfold get_persistent_state. destruct (gps_loop _ _ _ _); [|discriminate]. cbn.
  intros H; inv H. unfold wsame. cbn. splits; auto. exists []. rewrite app_nil_r. auto.
Qed.

Lemma nsw_wsame p p' : notify_state_written p = Ok p' -> wsame p p'.
Proof.
  unfold notify_state_written. destruct (_ <? _); [discriminate|].
  assert (E := firstn_skipn (releasing p) (toRelease p)).
  destruct (skipn (releasing p) (toRelease p)) as [|x rest];
    [destruct (nc_block _ _) as [rw h1]|]; intros H; inv H;
    unfold wsame; cbn; splits; auto; eexists; split; [reflexivity|symmetry; exact E|reflexivity|symmetry; exact E].
Qed.

Lemma wstep_effect cfg me w a s s' w' : wstep cfg me w a s = Some (Ok (s', w')) ->
  s_uploads s' = s_uploads s /\ s_r s' = s_r s /\ s_p s' = s_p s /\ wsame (s_pbl s) (s_pbl s') /\
  (forall st, w' = Some (WWriting st) -> exists p1, get_persistent_state (s_pbl s) = Ok (p1, st)).
Proof.
  unfold wstep. destruct w.
  - destruct (s_store s); [discriminate|]. intros H; inv H. cbn. splits; auto.
    + apply wsame_refl. + discriminate.
  - destruct (get_persistent_state (s_pbl s)) as [[p1 st1]|] eqn:Eg; [|discriminate].
    intros H; inv H. cbn. splits; auto.
    + eapply gps_wsame; eauto.
    + intros st E. inv E. eauto.
  - destruct (a_ok a); intros H; inv H; cbn; splits; auto; try apply wsame_refl; discriminate.
  - destruct (notify_state_written (s_pbl s)) as [p1|] eqn:En; [|discriminate].
    intros H; inv H. cbn. splits; auto.
    + eapply nsw_wsame; eauto. + discriminate.
  - destruct (_ <=? _)%N; [|discriminate]. intros H; inv H. splits; auto.
    + apply wsame_refl. + discriminate.
Qed.

Lemma estep_effect cfg s t a s' : step cfg s (EStep t a) = Some (Ok s') ->
  s_uploads s' = s_uploads s /\ pbl_same (s_pbl s) (s_pbl s') /\
  (forall st, s_r s' = RW (WWriting st) ->
     s_r s = RW (WWriting st) \/ exists p1, get_persistent_state (s_pbl s) = Ok (p1, st)) /\
  (forall keep st, s_p s' = PW keep (WWriting st) ->
     s_p s = PW keep (WWriting st) \/ exists p1, get_persistent_state (s_pbl s) = Ok (p1, st)).
Proof.
  destruct t; cbn [step].
  - unfold rstep. destruct (s_r s) as [|ch|w] eqn:Er.
    + intros H; inv H. cbn. splits; auto; [apply pbl_same_refl|discriminate].
    + destruct (is_closed _ _); [|discriminate]. intros H; inv H. cbn.
      splits; auto; [apply pbl_same_refl|discriminate].
    + destruct (wstep cfg TR w a s) as [[[s1 [w1|]]|]|] eqn:Ew; try discriminate.
      * destruct (wstep_effect _ _ _ _ _ _ _ Ew) as (U & R & P & S & G). apply wsame_same in S.
        intros H; inv H. cbn. splits; auto.
        -- intros st E. inv E. right. apply G. reflexivity.
        -- intros keep st E. left. congruence.
      * destruct (wstep_effect _ _ _ _ _ _ _ Ew) as (U & R & P & S & G). apply wsame_same in S.
        intros H; inv H. cbn. splits; auto.
        -- discriminate.
        -- intros keep st E. left. congruence.
  - unfold pstep. destruct (s_p s) as [|ch|ch|dl|keep|keep final|keep final|keep final dl|keep w|] eqn:Ep.
    + intros H; inv H. cbn. splits; auto; [apply pbl_same_refl|discriminate].
    + destruct (is_closed _ _); intros H; inv H; cbn; splits; auto; try apply pbl_same_refl; discriminate.
    + destruct (s_cancel s && _); [|destruct (is_closed _ _); [|discriminate]];
        intros H; inv H; cbn; splits; auto; try apply pbl_same_refl; discriminate.
    + destruct (s_cancel s && _); [|destruct (_ && _)%bool; [|discriminate]];
        intros H; inv H; cbn; splits; auto; try apply pbl_same_refl; discriminate.
    + intros H; inv H. cbn. splits; auto; [apply nss_same|discriminate].
    + destruct (a_ok a); intros H; inv H; cbn; splits; auto; try apply pbl_same_refl; discriminate.
    + destruct (negb keep && negb final); intros H; inv H; cbn; splits; auto; try discriminate.
      * eapply pbl_same_trans; [apply nsc_same|apply nss_same].
      * apply nsc_same.
    + destruct (_ <=? _)%N; [|discriminate]. intros H; inv H. cbn.
      splits; auto; [apply pbl_same_refl|discriminate].
    + destruct (wstep cfg TP w a s) as [[[s1 [w1|]]|]|] eqn:Ew; try discriminate.
      * destruct (wstep_effect _ _ _ _ _ _ _ Ew) as (U & R & P & S & G). apply wsame_same in S.
        intros H; inv H. cbn. splits; auto.
        -- intros st E. left. congruence.
        -- intros keep' st E. inv E. right. apply G. reflexivity.
      * destruct (wstep_effect _ _ _ _ _ _ _ Ew) as (U & R & P & S & G). apply wsame_same in S.
        intros H; inv H. cbn. splits; auto.
        -- intros st E. left. congruence.
        -- destruct keep; discriminate.
    + discriminate.
Qed.

Lemma gps_loop_spec bs : forall lastE synced seeds r n (pre : list nat),
  gps_loop bs lastE synced seeds = Ok r -> length pre = lastE ->
  forall q b, nth_error r q = Some b ->
    exists b0, nth_error bs q = Some b0 /\ bs_loc b = b_loc b0 /\ bs_off b = b_synced b0 /\
      forall sd, In sd (bs_seeds b) ->
        exists e, nth_error seeds e = Some sd /\
                  nth_error (pre ++ elast_of n (map b_epochs bs)) e = Some (n + q).
Proof.
  induction bs as [|b0 bs IH]; intros lastE synced seeds r n pre H Hpre q b Hq; cbn [gps_loop] in H.
  - destruct (lastE <? synced); [discriminate|]. inv H. rewrite nth_error_nil' in Hq. discriminate.
  - destruct (Nat.ltb_spec lastE synced) as [Hlt|Hge]; [|inv H; rewrite nth_error_nil' in Hq; discriminate].
    destruct (length seeds <? Nat.min (lastE + b_epochs b0) synced); [discriminate|].
    destruct (gps_loop bs (Nat.min (lastE + b_epochs b0) synced) synced seeds) as [r'|] eqn:Er; [|discriminate].
    cbn [obind] in H. inv H. destruct q as [|q].
    + cbn in Hq. inv Hq. exists b0. cbn. splits; auto.
      intros sd Hin. apply in_firstn_nth in Hin. destruct Hin as [e [He Hn]].
      rewrite nth_error_skipn' in Hn. exists (length pre + e). split; [exact Hn|].
      rewrite nth_error_app2 by lia. replace (length pre + e - length pre) with e by lia.
      rewrite nth_error_app1 by (rewrite repeat_length; lia).
      rewrite nth_error_repeat by lia. f_equal. lia.
    + cbn in Hq. destruct (Nat.le_gt_cases (length pre + b_epochs b0) synced) as [Hle|Hgt].
      * rewrite Nat.min_l in Er by exact Hle.
        destruct (IH _ _ _ _ (S n) (pre ++ repeat n (b_epochs b0)) Er) with (q := q) (b := b) as [b1 [Hb1 [Hl [Ho Hs]]]].
        { rewrite app_length, repeat_length. reflexivity. }
        { exact Hq. }
        exists b1. cbn. splits; auto. intros sd Hin. destruct (Hs sd Hin) as [e [He1 He2]].
        exists e. split; [exact He1|]. rewrite <- app_assoc in He2. rewrite He2. f_equal. lia.
      * rewrite Nat.min_r in Er by lia. destruct bs; cbn [gps_loop] in Er;
          rewrite Nat.ltb_irrefl in Er; inv Er; rewrite nth_error_nil' in Hq; discriminate.
Qed.

Lemma gps_spec p p1 st : get_persistent_state p = Ok (p1, st) ->
  forall q b, nth_error (snd st) q = Some b ->
    nth_error (map b_loc (blocks p)) q = Some (bs_loc b) /\
    forall sd, In sd (bs_seeds b) ->
      exists e, nth_error (epochSeeds p) e = Some sd /\
                nth_error (elast_of (totalReleased p) (map b_epochs (blocks p))) e = Some (totalReleased p + q).
Proof.
  unfold get_persistent_state.
  destruct (gps_loop (blocks p) 0 (synchronizedEpochs p) (epochSeeds p)) as [bl|] eqn:E; [|discriminate].
  cbn [obind]. intros H; inv H. cbn [snd]. intros q b Hq.
  destruct (gps_loop_spec _ _ _ _ _ (totalReleased p) [] E eq_refl q b Hq) as [b0 [Hb0 [Hl [_ Hs]]]].
  split; [|exact Hs]. rewrite nth_error_map, Hb0. cbn. congruence.
Qed.

Lemma restore_spec alloc init : forall n bl seeds lasts,
  restore_blocks alloc init n = (bl, seeds, lasts) ->
  forall e sd, nth_error seeds e = Some sd ->
    exists q b, nth_error lasts e = Some (n + q) /\ nth_error init q = Some b /\ In sd (bs_seeds b)
      /\ option_map b_loc (nth_error bl q) = Some (bs_loc b).
Proof.
  induction init as [|bs rest IH]; intros n bl seeds lasts H e sd He; cbn in H.
  - inv H. rewrite nth_error_nil' in He. discriminate.
  - destruct (alloc (bs_loc bs) (bs_off bs)); [|inv H; rewrite nth_error_nil' in He; discriminate].
    destruct (restore_blocks alloc rest (S n)) as [[bl' seeds'] lasts'] eqn:E. inv H.
    destruct (Nat.lt_ge_cases e (length (bs_seeds bs))) as [Hlt|Hge].
    + rewrite nth_error_app1 in He by exact Hlt. exists 0, bs. splits; auto.
      * rewrite nth_error_app1 by (rewrite repeat_length; exact Hlt).
        rewrite nth_error_repeat by exact Hlt. f_equal. lia.
      * eapply nth_error_In; eauto.
    + rewrite nth_error_app2 in He by exact Hge.
      destruct (IH _ _ _ _ E _ _ He) as [q [b [H1 [H2 [H3 H4]]]]].
      exists (S q), b. splits; auto.
      rewrite nth_error_app2 by (rewrite repeat_length; exact Hge).
      rewrite repeat_length, H1. f_equal. lia.
Qed.

Lemma pbl_new_fields alloc oldest init :
  let p := fst (pbl_new alloc oldest init) in
  totalReleased p = 0 /\
  forall bl seeds lasts, restore_blocks alloc init 0 = (bl, seeds, lasts) ->
    blocks p = bl /\ epochSeeds p = seeds /\ epochLast p = lasts.
Proof.
  unfold pbl_new. destruct (restore_blocks alloc init 0) as [[bl seeds] lasts]. cbn.
  split; [reflexivity|]. intros ? ? ? H; inv H. auto.
Qed.

Lemma ref_to_index_spec ep bfl p i seed : ref_to_index ep bfl p = Ok (Some (i, seed)) ->
  exists e la, nth_error (epochLast p) e = Some la /\ nth_error (epochSeeds p) e = Some seed /\
    (Z.of_N bfl <= Z.of_nat la - Z.of_nat (totalReleased p))%Z /\
    i = Z.to_nat (Z.of_nat la - Z.of_nat (totalReleased p) - Z.of_N bfl).
Proof.
  unfold ref_to_index. destruct (_ <=? _)%N; [discriminate|].
  set (e := N.to_nat _).
  destruct (nth_error (epochLast p) e) as [la|] eqn:E1; [|discriminate].
  destruct (nth_error (epochSeeds p) e) as [sd|] eqn:E2; [|discriminate].
  destruct (Z.ltb_spec (Z.of_nat la - Z.of_nat (totalReleased p)) (Z.of_N bfl)); [discriminate|].
  intros H0; inv H0. exists e, la. splits; auto.
Qed.

Lemma index_to_ref_spec i p ep bfl seed : index_to_ref i p = Ok ((ep, bfl), seed) ->
  exists le la, length (epochSeeds p) = S le /\ nth_error (epochLast p) le = Some la /\
    nth_error (epochSeeds p) le = Some seed /\
    bfl = u16z (Z.of_nat la - Z.of_nat (totalReleased p) - Z.of_nat i).
Proof.
  unfold index_to_ref. destruct (length (epochSeeds p)) as [|le] eqn:El; [discriminate|].
  destruct (nth_error (epochLast p) le) as [la|] eqn:E1; [|discriminate].
  destruct (nth_error (epochSeeds p) le) as [sd|] eqn:E2; [|discriminate].
  intros H; inv H. exists le, la. splits; auto.
Qed.

Lemma small_nat_Z n : n < 65536 -> (Z.of_nat n < 65536)%Z.
Proof.
  (* the literal is [Nat.of_uint] of its decimal digits; read as 6 + 10 * (3 + ...) it goes to Z without
     being evaluated in unary *)
  intros H. apply Nat2Z.inj_lt in H. cbn [Nat.of_num_uint] in H.
  rewrite DecimalNat.Unsigned.of_uint_alt in H.
  cbn [Decimal.rev Decimal.revapp DecimalNat.Unsigned.of_lu] in H. lia.
Qed.

Lemma u16z_small z : (0 <= z < 65536)%Z -> Z.of_N (u16z z) = z.
Proof.
  intros H. unfold u16z. change (2 ^ 16)%Z with 65536%Z.
  rewrite Z.mod_small by exact H. apply Z2N.id. lia.
Qed.

(** seeds [sd], per-seed last absolute block [el], per-upload absolute block [ab],
    absolute block -> region [lc] *)
Definition rec_ok (sd : list N) (el ab : list nat) (r : irec) : Prop :=
  exists j e a, nth_error sd j = Some (r_seed r) /\ nth_error el j = Some e /\
    nth_error ab (r_up r) = Some a /\ (Z.of_nat e - Z.of_N (r_bfl r) = Z.of_nat a)%Z.

Definition st_ok (sd : list N) (el : list nat) (lc : list loc) (st : pstate) : Prop :=
  exists kst, forall q b, nth_error (snd st) q = Some b ->
    nth_error lc (kst + q) = Some (bs_loc b) /\
    forall s0, In s0 (bs_seeds b) -> exists j, nth_error sd j = Some s0 /\ nth_error el j = Some (kst + q).

Definition io_ok sd el ab lc (e : io irec) : Prop :=
  match e with
  | IoIndex _ r => rec_ok sd el ab r
  | IoWriteNew (st, _) => st_ok sd el lc st
  | _ => True
  end.

Lemma rec_ok_mono sd el ab sd' el' ab' r :
  rec_ok sd el ab r -> rec_ok (sd ++ sd') (el ++ el') (ab ++ ab') r.
Proof.
  intros (j & e & a & H1 & H2 & H3 & H4). exists j, e, a.
  splits; auto using nth_error_app_some.
Qed.

Lemma st_ok_mono sd el lc sd' el' lc' st :
  st_ok sd el lc st -> st_ok (sd ++ sd') (el ++ el') (lc ++ lc') st.
Proof.
  intros [kst H]. exists kst. intros q b Hq. destruct (H q b Hq) as [H1 H2].
  split; [apply nth_error_app_some; exact H1|].
  intros s0 Hs. destruct (H2 s0 Hs) as [j [A B]]. exists j. split; apply nth_error_app_some; assumption.
Qed.

Lemma io_ok_mono sd el ab lc sd' el' ab' lc' e :
  io_ok sd el ab lc e -> io_ok (sd ++ sd') (el ++ el') (ab ++ ab') (lc ++ lc') e.
Proof.
  destruct e; cbn; auto.
  - apply rec_ok_mono.
  - destruct st. apply st_ok_mono.
Qed.

Lemma Forall_io_mono sd el ab lc sd' el' ab' lc' l :
  Forall (io_ok sd el ab lc) l -> Forall (io_ok (sd ++ sd') (el ++ el') (ab ++ ab') (lc ++ lc')) l.
Proof. intros H. eapply Forall_impl; [|exact H]. intros e. apply io_ok_mono. Qed.

Definition tbl_ok sd el ab (t : list (nat * irec)) : Prop := Forall (fun e => rec_ok sd el ab (snd e)) t.

Lemma tbl_ok_mono sd el ab sd' el' ab' t :
  tbl_ok sd el ab t -> tbl_ok (sd ++ sd') (el ++ el') (ab ++ ab') t.
Proof. intros H. eapply Forall_impl; [|exact H]. intros e. apply rec_ok_mono. Qed.

Record ginv (p : pbl) (sd : list N) (el : list nat) : Prop := mkGinv {
  gi_si : epochLast p = elast_of (totalReleased p) (map b_epochs (blocks p));
  gi_k : exists k, k <= length sd /\ epochSeeds p = skipn k sd /\ epochLast p = skipn k el;
  gi_len : length el = length sd;
  gi_nodup : NoDup sd
}.

Lemma ginv_same p p' sd el : pbl_same p p' -> ginv p sd el -> ginv p' sd el.
Proof.
  intros (A1 & A2 & A3 & A4 & A5 & _) [G1 G2 G3 G4]. constructor; auto.
  - rewrite A4, A5, A2. exact G1.
  - rewrite A3, A4. exact G2.
Qed.

Lemma mk_rec_ok p sd el ab i key off size up r a :
  ginv p sd el -> (Z.of_nat (length (blocks p)) < 65536)%Z ->
  mk_rec p i key off size up = Some r ->
  nth_error ab up = Some a -> a = totalReleased p + i ->
  (forall n' la, length (epochLast p) = S n' -> nth_error (epochLast p) n' = Some la -> a <= la) ->
  rec_ok sd el ab r.
Proof.
  intros [G1 [k [Gk [G2 G3]]] G4 G5] Hsmall Hm Ha Hai Hlast. unfold mk_rec in Hm.
  destruct (index_to_ref i p) as [[[ep bfl] seed]|] eqn:Ei; [|discriminate]. inv Hm.
  apply index_to_ref_spec in Ei. destruct Ei as (le & la & E1 & E2 & E3 & E4).
  assert (Hll : length (epochLast p) = S le).
  { rewrite G3, skipn_length, G4, <- (skipn_length k sd), <- G2. exact E1. }
  pose proof (Hlast _ _ Hll E2) as Hle.
  assert (Hb : totalReleased p <= la < totalReleased p + length (blocks p)).
  { rewrite G1 in E2. apply elast_bound in E2. rewrite map_length in E2. exact E2. }
  exists (k + le), la, (totalReleased p + i). cbn. splits.
  - rewrite <- nth_error_skipn', <- G2. exact E3.
  - rewrite <- nth_error_skipn', <- G3. exact E2.
  - exact Ha.
  - rewrite E4, u16z_small; lia.
Qed.

Lemma live_index_abs p sd el ab r0 i :
  ginv p sd el -> rec_ok sd el ab r0 -> live_index p r0 = Some i ->
  exists a0, nth_error ab (r_up r0) = Some a0 /\ a0 = totalReleased p + i /\
    (forall n' la, length (epochLast p) = S n' -> nth_error (epochLast p) n' = Some la -> a0 <= la).
Proof.
  intros [G1 [k [Gk [G2 G3]]] G4 G5] (j & e & a & R1 & R2 & R3 & R4) Hl.
  unfold live_index, resolve_ref in Hl.
  destruct (ref_to_index (r_epoch r0) (r_bfl r0) p) as [[[i' seed]|]|] eqn:Er; try discriminate.
  cbn in Hl. destruct (N.eqb_spec seed (r_seed r0)) as [Es|]; [|discriminate]. inv Hl.
  apply ref_to_index_spec in Er. destruct Er as (ei & la & E1 & E2 & E3 & E4).
  assert (j = k + ei).
  { eapply NoDup_nth_eq; eauto. rewrite <- nth_error_skipn', <- G2. exact E2. }
  subst j. assert (e = la).
  { rewrite <- nth_error_skipn', <- G3, E1 in R2. congruence. }
  subst e. exists a. splits; auto.
  - lia.
  - intros n' la' Hlen Hla. assert (la <= la'); [|lia].
    assert (ei < length (epochLast p)) by (apply nth_error_Some; congruence).
    rewrite G1 in E1, Hla. eapply elast_sorted; [|exact E1|exact Hla]. lia.
Qed.

Lemma do_writes_ok p sd el ab lc k u ws :
  ginv p sd el -> (Z.of_nat (length (blocks p)) < 65536)%Z ->
  nth_error ab k = Some (up_abs u) ->
  (forall n' la, length (epochLast p) = S n' -> nth_error (epochLast p) n' = Some la -> up_abs u <= la) ->
  forall log tbl log' tbl', do_writes p k u ws log tbl = Some (log', tbl') ->
    Forall (io_ok sd el ab lc) log -> tbl_ok sd el ab tbl ->
    Forall (io_ok sd el ab lc) log' /\ tbl_ok sd el ab tbl'.
Proof.
  intros G Hsmall Hk Hlast. induction ws as [|w ws IH]; intros log tbl log' tbl' H Hlog Htbl; cbn [do_writes] in H.
  - inv H. auto.
  - destruct w as [slot|from to].
    + destruct (Nat.ltb_spec (up_abs u) (totalReleased p)); [discriminate|].
      destruct (mk_rec p (up_abs u - totalReleased p) (up_key u) (up_off u) (up_size u) k) as [r|] eqn:Em;
        [|discriminate].
      assert (rec_ok sd el ab r) as Hr.
      { eapply mk_rec_ok; eauto. lia. }
      eapply IH; eauto.
      * apply Forall_app. split; [exact Hlog|]. constructor; [exact Hr|constructor].
      * apply Forall_app. split; [exact Htbl|]. constructor; [exact Hr|constructor].
    + destruct (slot_get tbl from None) as [r0|] eqn:Es; [|discriminate].
      destruct (live_index p r0) as [i|] eqn:El; [|discriminate].
      destruct (mk_rec p i (r_key r0) (r_off r0) (r_size r0) (r_up r0)) as [r|] eqn:Em; [|discriminate].
      assert (rec_ok sd el ab r0) as Hr0.
      { apply slot_get_in in Es. destruct Es as [Es|[s' Hin]]; [discriminate|].
        unfold tbl_ok in Htbl. rewrite Forall_forall in Htbl. apply (Htbl _ Hin). }
      destruct (live_index_abs _ _ _ _ _ _ G Hr0 El) as (a0 & A1 & A2 & A3).
      assert (rec_ok sd el ab r) as Hr.
      { eapply mk_rec_ok; eauto. }
      eapply IH; eauto.
      * apply Forall_app. split; [exact Hlog|]. constructor; [exact Hr|constructor].
      * apply Forall_app. split; [exact Htbl|]. constructor; [exact Hr|constructor].
Qed.

Definition abss (c : cst) : list nat := map up_abs (cs_ups c).

Definition tok_rel (a : nat) (u : option (put_token * Z)) : Prop :=
  match u with Some (PutAt abs, _) => abs = a | _ => True end.

Record cinv (g : geo) (c : cst) : Prop := mkCinv {
  ci_g : ginv (s_pbl (cs_sys c)) (cs_seeds c) (cs_elast c);
  ci_locs : map b_loc (blocks (s_pbl (cs_sys c))) = skipn (totalReleased (s_pbl (cs_sys c))) (cs_locs c);
  ci_ext : totalReleased (s_pbl (cs_sys c)) + length (blocks (s_pbl (cs_sys c))) = length (cs_locs c);
  ci_count : length (blocks (s_pbl (cs_sys c))) + length (toRelease (s_pbl (cs_sys c)))
             + length (cs_free c) + length (cs_held c) = length (g_locs g);
  ci_tok : Forall2 tok_rel (abss c) (s_uploads (cs_sys c));
  ci_log : Forall (io_ok (cs_seeds c) (cs_elast c) (abss c) (cs_locs c)) (cs_log c);
  ci_tbl : tbl_ok (cs_seeds c) (cs_elast c) (abss c) (cs_tbl c);
  ci_wr : forall st, s_r (cs_sys c) = RW (WWriting st) -> st_ok (cs_seeds c) (cs_elast c) (cs_locs c) st;
  ci_wp : forall keep st, s_p (cs_sys c) = PW keep (WWriting st) -> st_ok (cs_seeds c) (cs_elast c) (cs_locs c) st
}.

Lemma Forall2_nth {A B} (R : A -> B -> Prop) l1 l2 k a b :
  Forall2 R l1 l2 -> nth_error l1 k = Some a -> nth_error l2 k = Some b -> R a b.
Proof.
  intros F. revert k. induction F as [|x y l1 l2 Hxy F IH]; intros [|k] H1 H2; cbn in *; try discriminate.
  - inv H1. inv H2. exact Hxy.
  - eapply IH; eauto.
Qed.

Lemma Forall2_clear_nth l1 l2 k : Forall2 tok_rel l1 l2 -> Forall2 tok_rel l1 (clear_nth l2 k).
Proof.
  intros F. revert k. induction F as [|x y l1 l2 Hxy F IH]; intros [|k]; cbn; constructor; auto.
  exact I.
Qed.

Lemma io_mono_lc sd el ab lc lc' l :
  Forall (io_ok sd el ab lc) l -> Forall (io_ok sd el ab (lc ++ lc')) l.
Proof.
  intros H. pose proof (Forall_io_mono sd el ab lc [] [] [] lc' l H) as H'.
  rewrite !app_nil_r in H'. exact H'.
Qed.

Lemma io_mono_ab sd el ab lc ab' l :
  Forall (io_ok sd el ab lc) l -> Forall (io_ok sd el (ab ++ ab') lc) l.
Proof.
  intros H. pose proof (Forall_io_mono sd el ab lc [] [] ab' [] l H) as H'.
  rewrite !app_nil_r in H'. exact H'.
Qed.

Lemma io_mono_sd sd el ab lc sd' el' l :
  Forall (io_ok sd el ab lc) l -> Forall (io_ok (sd ++ sd') (el ++ el') ab lc) l.
Proof.
  intros H. pose proof (Forall_io_mono sd el ab lc sd' el' [] [] l H) as H'.
  rewrite !app_nil_r in H'. exact H'.
Qed.

Lemma tbl_mono_ab sd el ab ab' t : tbl_ok sd el ab t -> tbl_ok sd el (ab ++ ab') t.
Proof.
  intros H. pose proof (tbl_ok_mono sd el ab [] [] ab' t H) as H'. rewrite !app_nil_r in H'. exact H'.
Qed.

Lemma tbl_mono_sd sd el ab sd' el' t : tbl_ok sd el ab t -> tbl_ok (sd ++ sd') (el ++ el') ab t.
Proof.
  intros H. pose proof (tbl_ok_mono sd el ab sd' el' [] t H) as H'. rewrite !app_nil_r in H'. exact H'.
Qed.

Lemma st_mono_lc sd el lc lc' st : st_ok sd el lc st -> st_ok sd el (lc ++ lc') st.
Proof.
  intros H. pose proof (st_ok_mono sd el lc [] [] lc' st H) as H'. rewrite !app_nil_r in H'. exact H'.
Qed.

Lemma st_mono_sd sd el lc sd' el' st : st_ok sd el lc st -> st_ok (sd ++ sd') (el ++ el') lc st.
Proof.
  intros H. pose proof (st_ok_mono sd el lc sd' el' [] st H) as H'. rewrite !app_nil_r in H'. exact H'.
Qed.

Lemma loc_eqb_sym a b : loc_eqb a b = loc_eqb b a.
Proof. unfold loc_eqb. rewrite (Z.eqb_sym (fst a)), (Z.eqb_sym (snd a)). reflexivity. Qed.

Lemma remove_loc_length held l : existsb (loc_eqb l) held = true -> S (length (remove_loc held l)) = length held.
Proof.
  induction held as [|y t IH]; cbn; [discriminate|].
  rewrite (loc_eqb_sym y l). destruct (loc_eqb l y); cbn; [reflexivity|]. intros H. rewrite IH; auto.
Qed.

Lemma release_regions_length locs ups rel : forall free held fr hd,
  release_regions locs ups rel free held = (fr, hd) ->
  length fr + length hd = length free + length held + length rel.
Proof.
  induction rel as [|l t IH]; intros free held fr hd H; cbn in H.
  - inv H. cbn. lia.
  - destruct (writer_open_on locs ups l); apply IH in H; rewrite app_length in H; cbn in *; lia.
Qed.

Lemma gps_window p sd el lc p1 st :
  ginv p sd el -> map b_loc (blocks p) = skipn (totalReleased p) lc ->
  get_persistent_state p = Ok (p1, st) ->
  forall q b, nth_error (snd st) q = Some b ->
    nth_error lc (totalReleased p + q) = Some (bs_loc b) /\
    forall s0, In s0 (bs_seeds b) ->
      exists j, nth_error sd j = Some s0 /\ nth_error el j = Some (totalReleased p + q).
Proof.
  intros [G1 [k [Gk [G2 G3]]] G4 G5] Hl Hg q b Hq.
  destruct (gps_spec _ _ _ Hg q b Hq) as [H1 H2]. split.
  - rewrite Hl, nth_error_skipn' in H1. exact H1.
  - intros s0 Hs. destruct (H2 s0 Hs) as [e [E1 E2]]. exists (k + e). split.
    + rewrite <- nth_error_skipn', <- G2. exact E1.
    + rewrite <- nth_error_skipn', <- G3, G1. exact E2.
Qed.

Lemma gps_st_ok p sd el lc p1 st :
  ginv p sd el -> map b_loc (blocks p) = skipn (totalReleased p) lc ->
  get_persistent_state p = Ok (p1, st) -> st_ok sd el lc st.
Proof. intros G Hl Hg. exists (totalReleased p). eapply gps_window; eauto. Qed.

Lemma ginv_push p sd el l : ginv p sd el -> ginv (set_blocks p (blocks p ++ [mkBinfo l 0 0 0 0])) sd el.
Proof.
  intros [G1 G2 G3 G4]. constructor; cbn; auto.
  rewrite map_app, elast_app. cbn. rewrite app_nil_r. exact G1.
Qed.

Lemma ginv_pop p p' sd el : ginv p sd el -> pop_front p = Ok p' -> ginv p' sd el.
Proof.
  intros [G1 [k [Gk [G2 G3]]] G4 G5] Hp.
  destruct (pop_front_spec _ _ Hp) as (b & rest & E1 & E2 & E3 & E4 & E5 & E6 & E7 & _).
  constructor; auto.
  - rewrite E6, E7, E2, G1, E1. cbn [map elast_of].
    rewrite skipn_app, repeat_length, Nat.sub_diag, skipn_all2 by (rewrite repeat_length; lia).
    reflexivity.
  - exists (k + b_epochs b). splits.
    + rewrite G2, skipn_length in E3. lia.
    + rewrite E5, G2. apply skipn_skipn'.
    + rewrite E6, G3. apply skipn_skipn'.
Qed.

Lemma sys_step_inv cfg c e c' : sys_step cfg c e = Some c' ->
  exists s', step cfg (cs_sys c) e = Some (Ok s') /\ c' = with_sys c s'.
Proof.
  unfold sys_step. destruct (step cfg (cs_sys c) e) as [[s'|]|]; try discriminate.
  intros H; inv H. eauto.
Qed.

Lemma do_writes_app p k u ws : forall L tbl L' tbl', do_writes p k u ws L tbl = Some (L', tbl') ->
  exists X, L' = L ++ X /\ forall e, In e X -> exists s r, e = IoIndex s r.
Proof.
  induction ws as [|w ws IH]; intros L tbl L' tbl' H; cbn [do_writes] in H.
  - inv H. exists []. rewrite app_nil_r. split; [reflexivity|]. intros e [].
  - destruct w as [slot|from to].
    + destruct (_ <? _); [discriminate|]. destruct (mk_rec _ _ _ _ _ _) as [r|]; [|discriminate].
      destruct (IH _ _ _ _ H) as (X & X1 & X2). exists (IoIndex slot r :: X).
      rewrite X1, <- app_assoc. split; [reflexivity|]. intros e [<-|Hin]; eauto.
    + destruct (slot_get tbl from None) as [r0|]; [|discriminate].
      destruct (live_index p r0) as [i|]; [|discriminate].
      destruct (mk_rec _ _ _ _ _ _) as [r|]; [|discriminate].
      destruct (IH _ _ _ _ H) as (X & X1 & X2). exists (IoIndex to r :: X).
      rewrite X1, <- app_assoc. split; [reflexivity|]. intros e [<-|Hin]; eauto.
Qed.

Definition obs (c : cst) :=
  (s_pbl (cs_sys c), s_r (cs_sys c), s_p (cs_sys c), cs_log c, cs_ups c, cs_locs c, cs_free c, cs_held c,
   cs_dirpc c, cs_seeds c, cs_elast c).

Definition same_pcs (c c' : cst) : Prop :=
  s_r (cs_sys c') = s_r (cs_sys c) /\ s_p (cs_sys c') = s_p (cs_sys c).
Definition same_alloc3 (c c' : cst) : Prop :=
  cs_locs c' = cs_locs c /\ cs_free c' = cs_free c /\ cs_held c' = cs_held c.
Definition same_ghost (c c' : cst) : Prop :=
  cs_seeds c' = cs_seeds c /\ cs_elast c' = cs_elast c.
Definition sync_ghost (c : cst) := (cs_nclosed c, cs_closed_at c, cs_nsynced c).
Definition same_sync (c c' : cst) : Prop := cs_old c' = cs_old c /\ sync_ghost c' = sync_ghost c.
Definition same_rest (c c' : cst) : Prop :=
  s_uploads (cs_sys c') = s_uploads (cs_sys c) /\ cs_tbl c' = cs_tbl c /\ cs_cur c' = cs_cur c /\ same_sync c c'.

Definition isindex (e : io irec) : Prop := match e with IoIndex _ _ => True | _ => False end.
Definition issync (e : io irec) : Prop := match e with IoSyncBegin | IoSyncEnd _ => True | _ => False end.

Definition set_issued (n : Z) (u : upinfo) : upinfo :=
  mkUp (up_key u) (up_abs u) (up_off u) (up_size u) (up_issued u + n)%Z (up_state u).
Definition set_state (st : upstate) (u : upinfo) : upinfo :=
  mkUp (up_key u) (up_abs u) (up_off u) (up_size u) (up_issued u) st.

Inductive eff (g : geo) (cfg : config) (c c' : cst) : cev -> Prop :=
| eff_triv e : obs c' = obs c ->
    (exists ev, step cfg (cs_sys c) ev = Some (Ok (cs_sys c'))) -> same_rest c c' ->
    eff g cfg c c' e
| eff_push l fr :
    closedForWriting (s_pbl (cs_sys c)) = false -> cs_free c = l :: fr ->
    s_pbl (cs_sys c') = set_blocks (s_pbl (cs_sys c)) (blocks (s_pbl (cs_sys c)) ++ [mkBinfo l 0 0 0 0]) ->
    same_pcs c c' -> cs_log c' = cs_log c -> cs_ups c' = cs_ups c -> cs_dirpc c' = cs_dirpc c -> same_ghost c c' ->
    cs_locs c' = cs_locs c ++ [l] -> cs_free c' = fr -> cs_held c' = cs_held c ->
    step cfg (cs_sys c) (EPushBack (Some l)) = Some (Ok (cs_sys c')) ->
    s_uploads (cs_sys c') = s_uploads (cs_sys c) -> cs_tbl c' = cs_tbl c -> cs_cur c' = cs_cur c ++ [0%Z] ->
    same_sync c c' ->
    eff g cfg c c' CPush
| eff_pop p' :
    pop_front (s_pbl (cs_sys c)) = Ok p' -> s_pbl (cs_sys c') = p' ->
    same_pcs c c' -> cs_log c' = cs_log c -> cs_ups c' = cs_ups c -> cs_dirpc c' = cs_dirpc c -> same_ghost c c' ->
    same_alloc3 c c' ->
    step cfg (cs_sys c) EPopFront = Some (Ok (cs_sys c')) -> same_rest c c' ->
    eff g cfg c c' CPop
| eff_putstart index key size u :
    s_pbl (cs_sys c') = s_pbl (cs_sys c) ->
    same_pcs c c' -> cs_log c' = cs_log c -> cs_ups c' = cs_ups c ++ [u] -> cs_dirpc c' = cs_dirpc c -> same_ghost c c' ->
    same_alloc3 c c' -> up_issued u = 0%Z ->
    (up_open u = true -> exists l, up_abs u = totalReleased (s_pbl (cs_sys c)) + index /\
        nth_error (cs_locs c) (up_abs u) = Some l) ->
    step cfg (cs_sys c) (EPutStart index size) = Some (Ok (cs_sys c')) ->
    (exists tok, put_start index (s_pbl (cs_sys c)) = Ok tok /\
       s_uploads (cs_sys c') = s_uploads (cs_sys c) ++ [Some (tok, size)]) ->
    cs_tbl c' = cs_tbl c -> same_sync c c' -> (0 <= size)%Z -> up_size u = size ->
    ((closedForWriting (s_pbl (cs_sys c)) = true /\ up_abs u = length (cs_locs c) /\ up_off u = 0%Z /\
      up_state u = UpDone false /\ cs_cur c' = cs_cur c) \/
     (closedForWriting (s_pbl (cs_sys c)) = false /\ up_state u = UpWriting /\
      nth_error (cs_cur c) (up_abs u) = Some (up_off u) /\
      cs_cur c' = upd_nth (cs_cur c) (up_abs u) (fun o => (o + size)%Z))) ->
    eff g cfg c c' (CPutStart index key size)
| eff_data k n u l :
    nth_error (cs_ups c) k = Some u -> up_state u = UpWriting -> nth_error (cs_locs c) (up_abs u) = Some l ->
    (0 < n)%Z -> (up_issued u + n <= up_size u)%Z ->
    cs_sys c' = cs_sys c ->
    cs_log c' = cs_log c ++ [IoData k l (up_off u + up_issued u) (up_off u + up_issued u + n)%Z] ->
    cs_ups c' = upd_nth (cs_ups c) k (set_issued n) -> cs_dirpc c' = cs_dirpc c -> same_ghost c c' -> same_alloc3 c c' ->
    same_rest c c' ->
    eff g cfg c c' (CData k n)
| eff_wdone k ok u :
    nth_error (cs_ups c) k = Some u -> up_state u = UpWriting ->
    cs_sys c' = cs_sys c -> cs_log c' = cs_log c ->
    cs_ups c' = upd_nth (cs_ups c) k (set_state (UpDone ok)) -> cs_dirpc c' = cs_dirpc c -> same_ghost c c' ->
    cs_locs c' = cs_locs c ->
    ((cs_free c' = cs_free c /\ cs_held c' = cs_held c) \/
     (exists l, existsb (loc_eqb l) (cs_held c) = true /\ writer_open_on (cs_locs c') (cs_ups c') l = false /\
        cs_free c' = cs_free c ++ [l] /\ cs_held c' = remove_loc (cs_held c) l)) ->
    same_rest c c' -> (ok = true -> up_issued u = up_size u) ->
    eff g cfg c c' (CWriterDone k ok)
| eff_fin k seed ws u ok tok size p' fr b extra sd' el' :
    nth_error (cs_ups c) k = Some u -> up_state u = UpDone ok ->
    put_finalize tok (if ok then Some (up_off u) else None) size seed (s_pbl (cs_sys c)) = Ok (p', fr) ->
    s_pbl (cs_sys c') = p' -> same_pcs c c' ->
    cs_log c' = cs_log c ++ extra -> Forall isindex extra ->
    cs_ups c' = upd_nth (cs_ups c) k (set_state (UpFin b)) -> cs_dirpc c' = cs_dirpc c ->
    cs_seeds c' = cs_seeds c ++ sd' -> cs_elast c' = cs_elast c ++ el' -> same_alloc3 c c' ->
    nth_error (s_uploads (cs_sys c)) k = Some (Some (tok, size)) -> fresh c seed = true ->
    step cfg (cs_sys c) (EFinalize k (if ok then Some (up_off u) else None) seed) = Some (Ok (cs_sys c')) ->
    s_uploads (cs_sys c') = clear_nth (s_uploads (cs_sys c)) k -> cs_cur c' = cs_cur c -> same_sync c c' ->
    (sd', el') = (if length (epochSeeds (s_pbl (cs_sys c))) <? length (epochSeeds p')
                  then ([seed], [totalReleased p' + length (blocks p') - 1]) else ([], [])) ->
    ((exists off, fr = FinOk off /\ b = true /\
        do_writes p' k u ws (cs_log c) (cs_tbl c) = Some (cs_log c', cs_tbl c')) \/
     ((forall off, fr <> FinOk off) /\ b = false /\ extra = [] /\ cs_tbl c' = cs_tbl c)) ->
    eff g cfg c c' (CFinalize k seed ws)
| eff_thread t a s' rel fr hd extra :
    step cfg (cs_sys c) (EStep t a) = Some (Ok s') ->
    thread_writing (cs_sys c) t && a_ok a && negb (cs_dirpc c =? dir_ops_total) = false ->
    releasedLog (s_pbl s') = releasedLog (s_pbl (cs_sys c)) ++ rel ->
    toRelease (s_pbl (cs_sys c)) = rel ++ toRelease (s_pbl s') ->
    release_regions (cs_locs c) (cs_ups c) rel (cs_free c) (cs_held c) = (fr, hd) ->
    cs_sys c' = s' -> cs_log c' = cs_log c ++ extra -> Forall issync extra ->
    cs_ups c' = cs_ups c -> cs_locs c' = cs_locs c -> cs_free c' = fr -> cs_held c' = hd -> same_ghost c c' ->
    cs_dirpc c' = (if thread_at_getstate (cs_sys c) t then 0 else cs_dirpc c) ->
    cs_tbl c' = cs_tbl c -> cs_cur c' = cs_cur c -> cs_old c' = cs_old c ->
    (extra, sync_ghost c') =
      match t with
      | TR => ([], sync_ghost c)
      | TP => (if p_syncing (cs_sys c) then [IoSyncEnd (a_ok a)] else if p_syncing s' then [IoSyncBegin] else [],
               (if p_notifies (cs_sys c) then length (cs_seeds c) else cs_nclosed c,
                if p_notifies (cs_sys c) then length (cs_log c) else cs_closed_at c,
                if p_completes (cs_sys c) then cs_nclosed c else cs_nsynced c))
      end ->
    eff g cfg c c' (CStep t a)
| eff_dir st :
    writing (cs_sys c) = Some st -> cs_dirpc c < dir_ops_total ->
    cs_sys c' = cs_sys c -> cs_log c' = cs_log c ++ [dir_op (cs_dirpc c) (st, g_hinit g)] ->
    cs_ups c' = cs_ups c -> cs_dirpc c' = S (cs_dirpc c) -> same_ghost c c' -> same_alloc3 c c' ->
    same_rest c c' ->
    eff g cfg c c' CDir.

Ltac eff_cases H :=
  destruct H as
    [ e Hobs Xev Xrest
    | l fr Hc Hf Hp Hpc Hlg Hu Hd Hgh Hlc Hfr Hhd Xev Xup Xtbl Xcur Xsync
    | p' Hpop Hp Hpc Hlg Hu Hd Hgh Hal Xev Xrest
    | index key size u Hp Hpc Hlg Hu Hd Hgh Hal Hiss Hop Xev Xup Xtbl Xsync Xsz Xusz Xcur
    | k n u l Hk Hst Hl Hn0 Hn1 Hsys Hlg Hu Hd Hgh Hal Xrest
    | k ok u Hk Hst Hsys Hlg Hu Hd Hgh Hlc Hfh Xrest Xok
    | k seed ws u ok tok size p' fr b extra sd' el' Hk Hst Hpf Hp Hpc Hlg Hex Hu Hd Hsd Hel Hal
        Xtok Xfresh Xev Xup Xcur Xsync Xbump Xws
    | t a s' rel fr hd extra Hs Hg Hrl Htr Hrr Hsys Hlg Hex Hu Hlc Hfr Hhd Hgh Hd Xtbl Xcur Xold Xsg
    | st Hw Hlt Hsys Hlg Hu Hd Hgh Hal Xrest ].

Ltac eff_unfold := unfold same_pcs, same_ghost, same_alloc3, same_rest, same_sync, sync_ghost.

Lemma cstep_eff g cfg c e c' : cstep g cfg c e = Some c' -> eff g cfg c c' e.
Proof.
  intros H. destruct e; cbn [cstep] in H.
  - (* push *)
    assert (Hnone : forall c0, sys_step cfg c (EPushBack None) = Some c0 -> eff g cfg c c0 CPush).
    { intros c0 H0. apply sys_step_inv in H0. destruct H0 as [s' [Hs ->]]. pose proof Hs as Hs0.
      cbn [step] in Hs. inv Hs.
      apply eff_triv; [|eexists; exact Hs0|eff_unfold; cbn; auto].
      unfold obs, push_back. cbn. destruct (closedForWriting (s_pbl (cs_sys c))); reflexivity. }
    destruct (closedForWriting (s_pbl (cs_sys c))) eqn:Ec; [auto|].
    destruct (cs_free c) as [|l fr] eqn:Ef; [auto|].
    destruct (sys_step cfg c (EPushBack (Some l))) as [c1|] eqn:Ess; [|discriminate]. inv H.
    apply sys_step_inv in Ess. destruct Ess as [s' [Hs ->]]. pose proof Hs as Hs0. cbn [step] in Hs. inv Hs.
    eapply (eff_push _ _ _ _ l fr); eff_unfold; cbn; auto.
    unfold push_back. rewrite Ec. reflexivity.
  - (* pop *)
    apply sys_step_inv in H. destruct H as [s' [Hs ->]]. pose proof Hs as Hs0. cbn [step] in Hs.
    destruct (blocks (s_pbl (cs_sys c))); [discriminate|].
    destruct (pop_front (s_pbl (cs_sys c))) as [p'|] eqn:Ep; [|discriminate]. inv Hs.
    eapply eff_pop; eff_unfold; cbn; eauto.
  - (* putstart *)
    destruct (Z.ltb_spec size 0); [discriminate|].
    destruct (sys_step cfg c (EPutStart index size)) as [c1|] eqn:Ess; [|discriminate].
    apply sys_step_inv in Ess. destruct Ess as [s' [Hs ->]]. pose proof Hs as Hs0. cbn [step] in Hs.
    destruct (closedForWriting (s_pbl (cs_sys c)) || (index <? length (blocks (s_pbl (cs_sys c))))); [|discriminate].
    destruct (put_start index (s_pbl (cs_sys c))) as [tok|] eqn:Etok; [|discriminate]. inv Hs.
    destruct (closedForWriting (s_pbl (cs_sys c))) eqn:Ec.
    + inv H. eapply eff_putstart; eff_unfold; cbn; eauto; [discriminate|left; auto].
    + destruct (nth_error (cs_cur c) _) as [off|] eqn:Eo; [|discriminate].
      destruct (nth_error (cs_locs c) _) as [l|] eqn:El; [|discriminate].
      destruct (_ <=? _)%Z; [|discriminate]. inv H.
      eapply eff_putstart; eff_unfold; cbn; eauto.
  - (* data *)
    destruct (nth_error (cs_ups c) k) as [u|] eqn:Eu; [|discriminate].
    destruct (up_state u) eqn:Es; try discriminate.
    unfold up_loc in H. destruct (nth_error (cs_locs c) (up_abs u)) as [l|] eqn:El; [|discriminate].
    destruct (Z.ltb_spec 0 n); [|discriminate]. destruct (Z.leb_spec (up_issued u + n) (up_size u)); [|discriminate].
    cbn [andb] in H. inv H.
    eapply eff_data; eff_unfold; cbn; eauto.
  - (* writer done *)
    destruct (nth_error (cs_ups c) k) as [u|] eqn:Eu; [|discriminate].
    destruct (up_state u) eqn:Es; try discriminate.
    destruct (ok && _)%bool eqn:Eok; [discriminate|].
    assert (Xok : ok = true -> up_issued u = up_size u).
    { intros ->. cbn in Eok. apply negb_false_iff, Z.eqb_eq in Eok. exact Eok. }
    unfold up_loc in H. destruct (nth_error (cs_locs c) (up_abs u)) as [l|] eqn:El.
    2:{ inv H. eapply eff_wdone; eff_unfold; cbn; eauto. }
    destruct (existsb (loc_eqb l) (cs_held c)) eqn:Eh.
    2:{ cbn [andb] in H. inv H. eapply eff_wdone; eff_unfold; cbn; eauto. }
    cbn [andb] in H. destruct (writer_open_on _ _ l) eqn:Ew; cbn [negb] in H; inv H.
    + eapply eff_wdone; eff_unfold; cbn; eauto.
    + eapply eff_wdone; eff_unfold; cbn; eauto. right. exists l. auto.
  - (* finalize *)
    destruct (nth_error (cs_ups c) k) as [u|] eqn:Eu; [|discriminate].
    destruct (nth_error (s_uploads (cs_sys c)) k) as [[[tok size]|]|] eqn:Et; try discriminate.
    destruct (up_state u) as [|ok|] eqn:Eus; try discriminate.
    destruct (fresh c seed) eqn:Efr; [|discriminate]. cbn [negb] in H.
    destruct (put_finalize tok (if ok then Some (up_off u) else None) size seed (s_pbl (cs_sys c)))
      as [[p' fr]|] eqn:Epf; [|discriminate].
    destruct (sys_step cfg c (EFinalize k (if ok then Some (up_off u) else None) seed)) as [c1|] eqn:Ess;
      [|discriminate].
    apply sys_step_inv in Ess. destruct Ess as [s1 [Hs ->]]. pose proof Hs as Hs0.
    cbn [step] in Hs. rewrite Et, Epf in Hs. inv Hs.
    destruct fr as [off| | |].
    2-4: destruct ws; [|discriminate]; inv H;
      destruct (length (epochSeeds (s_pbl (cs_sys c))) <? length (epochSeeds p')) eqn:Eb;
      [eapply (eff_fin _ _ _ _ _ _ _ _ _ _ _ _ _ false [] [_] [_])
      |eapply (eff_fin _ _ _ _ _ _ _ _ _ _ _ _ _ false [] [] [])];
      eff_unfold; rewrite ?Eb; cbn; rewrite ?app_nil_r; eauto; right; splits; auto; discriminate.
    destruct (do_writes p' k u ws (cs_log c) (cs_tbl c)) as [[log' tbl']|] eqn:Edw; [|discriminate]. inv H.
    destruct (do_writes_app _ _ _ _ _ _ _ _ Edw) as (extra & -> & HX).
    assert (Hex : Forall isindex extra).
    { apply Forall_forall. intros e He. destruct (HX e He) as (s0 & r0 & ->). exact Logic.I. }
    destruct (length (epochSeeds (s_pbl (cs_sys c))) <? length (epochSeeds p')) eqn:Eb;
      [eapply (eff_fin _ _ _ _ _ _ _ _ _ _ _ _ _ true extra [_] [_])
      |eapply (eff_fin _ _ _ _ _ _ _ _ _ _ _ _ _ true extra [] [])];
      eff_unfold; rewrite ?Eb; cbn; rewrite ?app_nil_r; eauto; left; eauto.
  - (* tick *)
    apply sys_step_inv in H. destruct H as [s' [Hs ->]]. pose proof Hs as Hs0. cbn [step] in Hs. inv Hs.
    apply eff_triv; [reflexivity|eexists; exact Hs0|eff_unfold; cbn; auto].
  - (* cancel *)
    apply sys_step_inv in H. destruct H as [s' [Hs ->]]. pose proof Hs as Hs0. cbn [step] in Hs. inv Hs.
    apply eff_triv; [reflexivity|eexists; exact Hs0|eff_unfold; cbn; auto].
  - (* thread *)
    destruct (thread_writing _ t && a_ok a && negb _) eqn:Eg; [discriminate|].
    destruct (sys_step cfg c (EStep t a)) as [c1|] eqn:Ess; [|discriminate].
    apply sys_step_inv in Ess. destruct Ess as [s' [Hs ->]].
    destruct (estep_effect _ _ _ _ _ Hs) as (U & S & R & P).
    pose proof S as (S1 & S2 & S3 & S4 & S5 & S6' & rel & S6 & S7).
    assert (Hrel : skipn (length (releasedLog (s_pbl (cs_sys c)))) (releasedLog (s_pbl s')) = rel).
    { rewrite S6, skipn_app, skipn_all, Nat.sub_diag. reflexivity. }
    cbn [cs_sys with_sys] in H. cbv zeta in H. rewrite Hrel in H. clear Hrel.
    cbn [cs_locs cs_ups cs_free cs_held cs_cur cs_log cs_seeds with_sys] in H.
    destruct (release_regions (cs_locs c) (cs_ups c) rel (cs_free c) (cs_held c)) as [fr hd] eqn:Err.
    destruct t.
    + inv H. eapply (eff_thread _ _ _ _ TR a s' rel fr hd []); eff_unfold; eauto;
        try (unfold thread_at_getstate; match goal with |- context [if ?b then with_dirpc _ 0 else _] => destruct b end; cbn; rewrite ?app_nil_r; auto).
    + destruct (p_notifies (cs_sys c)) eqn:En; inv H;
      eapply (eff_thread _ _ _ _ TP a s' rel fr hd
                (if p_syncing (cs_sys c) then [IoSyncEnd (a_ok a)] else if p_syncing s' then [IoSyncBegin] else []));
        eff_unfold; eauto;
        try (unfold thread_at_getstate; match goal with |- context [if ?b then with_dirpc _ 0 else _] => destruct b end; cbn; rewrite ?En; auto).
      all: destruct (p_syncing (cs_sys c)); [|destruct (p_syncing s')]; rewrite ?app_nil_r; try reflexivity; repeat constructor.
  - (* dir *)
    destruct (writing (cs_sys c)) as [st|] eqn:Ew; [|discriminate].
    destruct (Nat.ltb_spec (cs_dirpc c) dir_ops_total); [|discriminate]. inv H.
    eapply eff_dir; eff_unfold; cbn; eauto.
Qed.

Lemma obs_fields c c' : obs c' = obs c ->
  s_pbl (cs_sys c') = s_pbl (cs_sys c) /\ s_r (cs_sys c') = s_r (cs_sys c) /\ s_p (cs_sys c') = s_p (cs_sys c) /\
  cs_log c' = cs_log c /\ cs_ups c' = cs_ups c /\ cs_locs c' = cs_locs c /\ cs_free c' = cs_free c /\
  cs_held c' = cs_held c /\ cs_dirpc c' = cs_dirpc c /\ cs_seeds c' = cs_seeds c /\ cs_elast c' = cs_elast c.
Proof. unfold obs. intros H. inversion H. splits; reflexivity. Qed.

Lemma same_sync_fields c c' : same_sync c c' ->
  cs_old c' = cs_old c /\ cs_nclosed c' = cs_nclosed c /\ cs_closed_at c' = cs_closed_at c /\ cs_nsynced c' = cs_nsynced c.
Proof. unfold same_sync, sync_ghost. intros [H1 H2]. inversion H2. auto. Qed.

Lemma cstep_sys g cfg c e c' : cstep g cfg c e = Some c' ->
  cs_sys c' = cs_sys c \/ exists ev, step cfg (cs_sys c) ev = Some (Ok (cs_sys c')).
Proof.
  intros H. apply cstep_eff in H. eff_cases H; auto; right; try (eexists; exact Xev).
  exists (EStep t a). rewrite Hsys. exact Hs.
Qed.

Lemma crun_inv g cfg (P : cst -> Prop) : (forall c e c', P c -> cstep g cfg c e = Some c' -> P c') ->
  forall tr c c', P c -> crun g cfg c tr = Some c' -> P c'.
Proof.
  intros Hstep. induction tr as [|e tr IH]; intros c c' Hc H; cbn in H.
  - inv H. exact Hc.
  - destruct (cstep g cfg c e) as [c1|] eqn:Es; [|discriminate]. eapply IH; [|exact H]. eapply Hstep; eauto.
Qed.

Lemma abss_upd c k f : (forall u, up_abs (f u) = up_abs u) -> map up_abs (upd_nth (cs_ups c) k f) = abss c.
Proof. intros H. unfold abss. apply map_upd_nth. exact H. Qed.

Lemma cinv_ext g c c' :
  s_pbl (cs_sys c') = s_pbl (cs_sys c) -> same_pcs c c' -> s_uploads (cs_sys c') = s_uploads (cs_sys c) ->
  abss c' = abss c -> cs_locs c' = cs_locs c -> same_ghost c c' ->
  length (cs_free c') + length (cs_held c') = length (cs_free c) + length (cs_held c) ->
  Forall (io_ok (cs_seeds c) (cs_elast c) (abss c) (cs_locs c)) (cs_log c') ->
  tbl_ok (cs_seeds c) (cs_elast c) (abss c) (cs_tbl c') ->
  cinv g c -> cinv g c'.
Proof.
  intros E1 [E2 E3] E4 E5 E6 [E7 E8] E9 HL HT [I1 I2 I3 I4 I5 I6 I7 I8 I9].
  constructor; rewrite ?E1, ?E2, ?E3, ?E4, ?E5, ?E6, ?E7, ?E8; auto. lia.
Qed.

Lemma Forall_snoc {A} (P : A -> Prop) l x : Forall P l -> P x -> Forall P (l ++ [x]).
Proof. intros H Hx. apply Forall_app. split; [exact H|]. constructor; [exact Hx|constructor]. Qed.

Definition fin_ups (c : cst) (k : nat) (b : bool) : list upinfo :=
  upd_nth (cs_ups c) k (fun u => mkUp (up_key u) (up_abs u) (up_off u) (up_size u) (up_issued u) (UpFin b)).

Lemma cinv_fin_core g c k u tok size seed blk p' fr b :
  cinv g c -> nth_error (cs_ups c) k = Some u ->
  nth_error (s_uploads (cs_sys c)) k = Some (Some (tok, size)) ->
  fresh c seed = true ->
  put_finalize tok blk size seed (s_pbl (cs_sys c)) = Ok (p', fr) ->
  let c1 := with_sys c (with_uploads (with_pbl (cs_sys c) p') (clear_nth (s_uploads (cs_sys c)) k)) in
  let c2 := if length (epochSeeds (s_pbl (cs_sys c))) <? length (epochSeeds p')
            then with_seeds c1 (cs_seeds c ++ [seed]) (cs_elast c ++ [totalReleased p' + length (blocks p') - 1])
            else c1 in
  cinv g (with_ups c2 (fin_ups c k b)) /\
  (forall off, fr = FinOk off -> forall n' la, length (epochLast p') = S n' ->
     nth_error (epochLast p') n' = Some la -> up_abs u <= la).
Proof.
  intros I Eu Et Efr Epf c1 c2.
  pose proof (put_finalize_spec _ _ _ _ _ _ _ Epf) as Sh.
  destruct I as [I1 I2 I3 I4 I5 I6 I7 I8 I9].
  assert (Habs : forall abs, tok = PutAt abs -> abs = up_abs u).
  { intros abs ->. eapply (Forall2_nth _ _ _ k (up_abs u)) in I5; [| |exact Et].
    - exact I5.
    - unfold abss. apply map_nth_error. exact Eu. }
  assert (Hab : map up_abs (fin_ups c k b) = abss c).
  { unfold fin_ups. apply abss_upd. reflexivity. }
  destruct Sh as [Hsame Hnok | abs off Htok Hfr Hle Hlt T1 T2 T3 T4 Hcase T5].
  - subst p'. split; [|intros off E; exfalso; eapply Hnok; eauto].
    unfold c2. rewrite Nat.ltb_irrefl. unfold c1.
    constructor; cbn; auto; unfold abss; cbn; rewrite ?Hab; auto.
    apply Forall2_clear_nth. exact I5.
  - pose proof (Habs _ Htok) as ->.
    assert (Hlen : length (blocks p') = length (blocks (s_pbl (cs_sys c)))).
    { rewrite <- (map_length b_loc), T4, map_length. reflexivity. }
    destruct Hcase as [(C1 & C2 & C3 & n' & la & C4 & C5 & C6) | (C1 & C2 & C3)].
    + split.
      * unfold c2. rewrite C1, Nat.ltb_irrefl. unfold c1.
        constructor; cbn; auto; unfold abss; cbn; rewrite ?Hab; auto.
        -- destruct I1 as [G1 G2 G3 G4]. constructor; auto.
           ++ rewrite C2, T1, C3. exact G1.
           ++ rewrite C1, C2. exact G2.
        -- rewrite T4, T1. exact I2.
        -- rewrite T1, Hlen. exact I3.
        -- rewrite T2, Hlen. exact I4.
        -- apply Forall2_clear_nth. exact I5.
      * intros off' _ n'' la' L1 L2. rewrite C2 in L1, L2. rewrite C4 in L1. inv L1.
        rewrite C5 in L2. inv L2. exact C6.
    + assert (Hne : map b_epochs (blocks (s_pbl (cs_sys c))) <> []).
      { intros E. apply (f_equal (@length _)) in E. rewrite map_length in E. cbn in E. lia. }
      split.
      * unfold c2. rewrite C1, app_length. cbn [length].
        replace (_ <? _) with true by (symmetry; apply Nat.ltb_lt; lia). unfold c1.
        constructor; cbn; auto; unfold abss; cbn; rewrite ?Hab; auto.
        -- destruct I1 as [G1 [k0 [Gk [G2 G3]]] G4 G5]. constructor.
           ++ rewrite C2, T1, C3, elast_bumpl by exact Hne. rewrite map_length, <- G1. reflexivity.
           ++ exists k0. rewrite app_length. splits; [lia| |].
              ** rewrite C1, G2, skipn_app. replace (k0 - _) with 0 by lia. reflexivity.
              ** rewrite C2, G3, skipn_app, T1, Hlen. replace (k0 - _) with 0 by lia. reflexivity.
           ++ rewrite !app_length. cbn. lia.
           ++ apply NoDup_snoc; [exact G5|]. apply (fresh_seeds _ _ Efr).
        -- rewrite T4, T1. exact I2.
        -- rewrite T1, Hlen. exact I3.
        -- rewrite T2, Hlen. exact I4.
        -- apply Forall2_clear_nth. exact I5.
        -- apply io_mono_sd. exact I6.
        -- apply tbl_mono_sd. exact I7.
        -- intros st E. apply st_mono_sd. eauto.
        -- intros keep st E. apply st_mono_sd. eauto.
      * intros off' _ n'' la' L1 L2. rewrite C2 in L1, L2. rewrite app_length in L1. cbn in L1.
        assert (n'' = length (epochLast (s_pbl (cs_sys c)))) by lia. subst n''.
        rewrite nth_error_snoc in L2. inv L2. lia.
Qed.

Lemma cstep_cinv g cfg c e c' :
  length (g_locs g) < 65536 -> cinv g c -> cstep g cfg c e = Some c' -> cinv g c'.
Proof.
  intros Hsmall I H. apply cstep_eff in H. pose proof I as [I1 I2 I3 I4 I5 I6 I7 I8 I9]. eff_cases H.
  - (* tick, cancel, push without a block *)
    apply obs_fields in Hobs. destruct Hobs as (E1 & E2 & E3 & E4 & E5 & E6 & E7 & E8 & _ & E10 & E11).
    destruct Xrest as (U & T & _).
    apply (cinv_ext g c); unfold same_pcs, same_ghost, abss; rewrite ?E4, ?E5, ?E7, ?E8, ?T; auto.
  - (* push *)
    destruct Hpc as [Er Epp]. destruct Hgh as [Esd Eel].
    constructor; unfold abss; rewrite ?Hp, ?Er, ?Epp, ?Hlg, ?Hu, ?Esd, ?Eel, ?Hlc, ?Hfr, ?Hhd, ?Xup, ?Xtbl; cbn.
    + apply ginv_push. exact I1.
    + rewrite map_app, skipn_app, I2. cbn. replace (_ - _) with 0 by lia. reflexivity.
    + rewrite !app_length. cbn. lia.
    + rewrite app_length. rewrite Hf in I4. cbn [length] in I4 |- *. lia.
    + exact I5.
    + apply io_mono_lc. exact I6.
    + exact I7.
    + intros st E. apply st_mono_lc. eauto.
    + intros keep st E. apply st_mono_lc. eauto.
  - (* pop *)
    destruct Hpc as [Er Epp]. destruct Hgh as [Esd Eel]. destruct Hal as (L1 & L2 & L3). destruct Xrest as (U & T & _).
    destruct (pop_front_spec _ _ Hpop) as (b & rest & E1 & E2 & E3 & E4 & E5 & E6 & E7 & E8 & _ & E9).
    constructor; unfold abss; rewrite ?Hp, ?Er, ?Epp, ?Hlg, ?Hu, ?Esd, ?Eel, ?L1, ?L2, ?L3, ?U, ?T; auto.
    + eapply ginv_pop; eauto.
    + rewrite E2, E7. rewrite E1 in I2. cbn [map] in I2.
      replace (S (totalReleased (s_pbl (cs_sys c)))) with (totalReleased (s_pbl (cs_sys c)) + 1) by lia.
      rewrite <- skipn_skipn', <- I2. reflexivity.
    + rewrite E2, E7. rewrite E1 in I3. cbn in I3. lia.
    + rewrite E2, E8, app_length. rewrite E1 in I4. cbn [length] in I4 |- *. lia.
  - (* put start *)
    destruct Hpc as [Er Epp]. destruct Hgh as [Esd Eel]. destruct Hal as (L1 & L2 & L3).
    destruct Xup as (tok & Htok & Xup).
    constructor; unfold abss; rewrite ?Hp, ?Er, ?Epp, ?Hlg, ?Hu, ?Esd, ?Eel, ?L1, ?L2, ?L3, ?Xup, ?Xtbl, ?map_app; auto.
    + apply Forall2_app; [exact I5|]. constructor; [|constructor]. unfold put_start in Htok. cbn.
      destruct Xcur as [(C & _)|(C & Ho & _)]; rewrite C in Htok.
      * inv Htok. exact Logic.I.
      * destruct (index <? _); inv Htok. destruct Hop as (l & Ha & _); [unfold up_open; rewrite Ho; reflexivity|].
        symmetry. exact Ha.
    + apply io_mono_ab. exact I6.
    + apply tbl_mono_ab. exact I7.
  - (* data *)
    destruct Hal as (L1 & L2 & L3). destruct Xrest as (U & T & _).
    apply (cinv_ext g c); unfold same_pcs, abss; rewrite ?Hsys, ?Hlg, ?Hu, ?L2, ?L3, ?T; auto.
    + apply abss_upd. reflexivity.
    + apply Forall_snoc; [exact I6|exact Logic.I].
  - (* writer done *)
    destruct Xrest as (U & T & _).
    apply (cinv_ext g c); unfold same_pcs, abss; rewrite ?Hsys, ?Hlg, ?Hu, ?T; auto.
    + apply abss_upd. reflexivity.
    + destruct Hfh as [[-> ->]|(l & Hh & _ & -> & ->)]; [reflexivity|].
      apply remove_loc_length in Hh. rewrite app_length. cbn. lia.
  - (* finalize *)
    destruct (cinv_fin_core g c k u tok size seed _ p' fr b I Hk Xtok Xfresh Hpf) as [Ic Hlast]. cbv zeta in Ic.
    set (c2 := if length (epochSeeds (s_pbl (cs_sys c))) <? length (epochSeeds p') then _ else _) in Ic.
    set (cx := with_ups c2 (fin_ups c k b)) in Ic.
    assert (Ex : s_pbl (cs_sys cx) = p' /\ s_r (cs_sys cx) = s_r (cs_sys c) /\ s_p (cs_sys cx) = s_p (cs_sys c) /\
                 s_uploads (cs_sys cx) = clear_nth (s_uploads (cs_sys c)) k /\ cs_ups cx = cs_ups c' /\
                 cs_locs cx = cs_locs c /\ cs_free cx = cs_free c /\ cs_held cx = cs_held c /\
                 cs_log cx = cs_log c /\ cs_tbl cx = cs_tbl c /\
                 cs_seeds cx = cs_seeds c' /\ cs_elast cx = cs_elast c').
    { rewrite Hu, Hsd, Hel. unfold cx, c2.
      destruct (_ <? _); inversion Xbump; cbn; rewrite ?app_nil_r; splits; reflexivity. }
    destruct Ex as (X1 & X2 & X3 & X4 & X5 & X6 & X7 & X8 & X9 & X10 & X11 & X12).
    destruct Hpc as [Er Epp]. destruct Hal as (L1 & L2 & L3).
    pose proof Ic as [J1 J2 J3 J4 J5 J6 J7 J8 J9]. rewrite X9 in J6. rewrite X10 in J7.
    assert (HW : Forall (io_ok (cs_seeds cx) (cs_elast cx) (abss cx) (cs_locs cx)) (cs_log c') /\
                 tbl_ok (cs_seeds cx) (cs_elast cx) (abss cx) (cs_tbl c')).
    { destruct Xws as [(off & -> & -> & Hw)|(_ & _ & -> & ->)]; [|rewrite Hlg, app_nil_r; split; assumption].
      rewrite X1 in J1, J4.
      eapply do_writes_ok; [exact J1|apply small_nat_Z; lia| |exact (Hlast off eq_refl)|exact Hw|exact J6|exact J7].
      unfold abss. rewrite X5, Hu, abss_upd by reflexivity. apply map_nth_error. exact Hk. }
    apply (cinv_ext g cx); [..|apply HW|apply HW|exact Ic]; unfold same_pcs, same_ghost, abss;
      rewrite ?X1, ?X2, ?X3, ?X4, ?X5, ?X6, ?X7, ?X8, ?X11, ?X12, ?L2, ?L3; auto.
  - (* thread step *)
    destruct (estep_effect _ _ _ _ _ Hs) as (U & S & R & P). pose proof S as (S1 & S2 & S3 & S4 & S5 & _).
    destruct Hgh as [Esd Eel]. apply release_regions_length in Hrr.
    assert (Hlen : length (blocks (s_pbl s')) = length (blocks (s_pbl (cs_sys c)))).
    { rewrite <- (map_length b_loc), S1, map_length. reflexivity. }
    constructor; unfold abss; rewrite ?Hsys, ?Hu, ?Hlc, ?Hfr, ?Hhd, ?Esd, ?Eel, ?Xtbl, ?U; auto.
    + eapply ginv_same; eauto.
    + rewrite S1, S5. exact I2.
    + rewrite S5, Hlen. exact I3.
    + rewrite Hlen. rewrite Htr, app_length in I4. lia.
    + rewrite Hlg. apply Forall_app. split; [exact I6|].
      eapply Forall_impl; [|exact Hex]. intros [] Hi; try destruct Hi; exact Logic.I.
    + intros st E. destruct (R st E) as [E'|[p1 Hg']]; [eauto|]. eapply gps_st_ok; eauto.
    + intros keep st E. destruct (P keep st E) as [E'|[p1 Hg']]; [eauto|]. eapply gps_st_ok; eauto.
  - (* directory operation *)
    destruct Hal as (L1 & L2 & L3). destruct Xrest as (U & T & _).
    apply (cinv_ext g c); unfold same_pcs, abss; rewrite ?Hsys, ?Hlg, ?Hu, ?L2, ?L3, ?T; auto.
    apply Forall_snoc; [exact I6|].
    assert (Hst : st_ok (cs_seeds c) (cs_elast c) (cs_locs c) st).
    { unfold writing in Hw. destruct (s_r (cs_sys c)) as [| |[]] eqn:Er;
        try (inv Hw; eapply I8; reflexivity);
        destruct (s_p (cs_sys c)) as [| | | | | | | |? []|] eqn:Epp; try discriminate;
        inv Hw; eapply I9; reflexivity. }
    destruct (cs_dirpc c) as [|[|[|[|[|?]]]]]; cbn; auto.
Qed.

Lemma st_ok_nil sd el lc o : st_ok sd el lc (o, []).
Proof. exists 0. intros q b H. cbn in H. rewrite nth_error_nil' in H. discriminate. Qed.

Lemma cinit_cinv g t0 : cinv g (cinit g medium_empty t0).
Proof.
  unfold cinit. cbn. constructor; cbn; auto.
  - constructor; cbn; auto.
    + exists 0. cbn. auto.
    + constructor.
  - constructor.
  - discriminate.
  - discriminate.
Qed.

Theorem creach_cinv g cfg t0 c :
  length (g_locs g) < 65536 -> creach g cfg medium_empty t0 c -> cinv g c.
Proof.
  intros Hg [tr H]. eapply (crun_inv g cfg (cinv g)); [|apply cinit_cinv|exact H].
  intros c0 e c1. apply cstep_cinv. exact Hg.
Qed.

Section DirContent.
  Variable P : sfile -> Prop.
  Hypothesis Pempty : P sfile_empty.

  Definition files_ok (fs : list (option sfile * bool)) : Prop :=
    forall f c b, nth_error fs f = Some (Some c, b) -> P c.

  Lemma set_nth_nth {T} (l : list T) i x j y :
    nth_error (set_nth l i x) j = Some y -> y = x \/ nth_error l j = Some y.
  Proof.
    revert i j. induction l as [|h t IH]; intros i j H.
    - destruct i; cbn in H; rewrite nth_error_nil' in H; discriminate.
    - destruct i as [|i], j as [|j]; cbn in *; auto.
      + inv H. auto.
      + eapply IH; eauto.
  Qed.

  Lemma dir_step_ok d e : (forall st, e = IoWriteNew st -> P st) ->
    files_ok (d_files d) -> files_ok (d_files (dir_step d (e : io irec))).
  Proof.
    intros He Hd. destruct e; cbn; auto.
    - (* create *)
      intros f c b H. destruct (Nat.lt_ge_cases f (length (d_files d))).
      + rewrite nth_error_app1 in H by assumption. eapply Hd; eauto.
      + rewrite nth_error_app2 in H by assumption.
        destruct (f - length (d_files d)) as [|x]; cbn in H; [discriminate|].
        rewrite nth_error_nil' in H. discriminate.
    - (* write *)
      destruct (d_vnew d) as [fn|]; cbn; auto.
      intros f c b H. apply set_nth_nth in H. destruct H as [H|H].
      + inv H. apply He. reflexivity.
      + eapply Hd; eauto.
    - (* fsync *)
      destruct (d_vnew d) as [fn|]; cbn; auto.
      intros f c b H. apply set_nth_nth in H. destruct H as [H|H]; [|eapply Hd; eauto].
      inv H. destruct (nth_error (d_files d) fn) as [[c' b']|] eqn:En.
      * rewrite (nth_error_nth _ _ _ En) in H1. cbn in H1. subst c'. eapply Hd; eauto.
      * apply nth_error_None in En. rewrite nth_overflow in H1 by exact En. discriminate.
    - (* rename *)
      destruct (d_vnew d); cbn; auto.
  Qed.

  Lemma dir_run_ok (l : list (io irec)) : forall d, Forall (fun e => forall st, e = IoWriteNew st -> P st) l ->
    files_ok (d_files d) -> files_ok (d_files (dir_run d l)).
  Proof.
    induction l as [|e l IH]; intros d Hl Hd; cbn; [exact Hd|].
    inv Hl. apply IH; [assumption|]. apply dir_step_ok; assumption.
  Qed.

  Lemma file_content_ok d gb f : files_ok (d_files d) -> P (file_content d gb f).
  Proof.
    intros Hd. unfold file_content.
    assert (Hw : forall c b j, nth_error (d_files d) j = Some (c, b) ->
                   P (match c with Some s => s | None => sfile_empty end)).
    { intros [c|] b j Hj; [eapply Hd; eauto|exact Pempty]. }
    destruct (nth_error (d_files d) f) as [[c [|]]|] eqn:En; [eapply Hw; eauto| |exact Pempty].
    destruct gb as [|[|j]]; [eapply Hw; eauto|exact Pempty|].
    destruct (j <? f); [|eapply Hw; eauto].
    destruct (nth_error (d_files d) j) as [[c' b']|] eqn:Ej; eapply Hw; eauto.
  Qed.

  Lemma crash_state_P (l : list (io irec)) ch x :
    Forall (fun e => forall st, e = IoWriteNew st -> P st) l ->
    m_state (crash_medium medium_empty l ch) = Some x -> P x.
  Proof.
    intros Hl. unfold crash_medium.
    set (d := dir_run (dir_init (m_state (@medium_empty irec)) (m_new (@medium_empty irec))) l).
    assert (Hd : files_ok (d_files d)).
    { apply dir_run_ok; [exact Hl|]. cbn. intros f c b H. rewrite nth_error_nil' in H. discriminate. }
    unfold dir_crash.
    destruct (snd (fold_left _ _ _)) as [f|]; cbn; [|discriminate].
    intros H; inv H. apply file_content_ok. exact Hd.
  Qed.
End DirContent.

Lemma crash_index_in l ch slot (r : irec) :
  slot_get (m_index (crash_medium medium_empty l ch)) slot None = Some r ->
  exists s', In (IoIndex s' r) l.
Proof.
  unfold crash_medium. destruct (dir_crash _ _ _) as [st nw]. cbn.
  intros H. apply slot_get_in in H. destruct H as [H|[s' H]]; [discriminate|].
  exists s'. apply index_writes_in. eapply select_in; eauto.
Qed.

Lemma restore_blocks_written alloc init : forall n bl seeds lasts,
  restore_blocks alloc init n = (bl, seeds, lasts) ->
  forall i x, nth_error bl i = Some x ->
    exists b, nth_error init i = Some b /\ b_written x = bs_off b /\ b_loc x = bs_loc b.
Proof.
  induction init as [|bs rest IH]; intros n bl seeds lasts H i x Hi; cbn in H.
  - inv H. rewrite nth_error_nil' in Hi. discriminate.
  - destruct (alloc (bs_loc bs) (bs_off bs)); [|inv H; rewrite nth_error_nil' in Hi; discriminate].
    destruct (restore_blocks alloc rest (S n)) as [[bl' seeds'] lasts'] eqn:E. inv H.
    destruct i as [|i]; cbn in Hi.
    + inv Hi. exists bs. auto.
    + eapply IH; eauto.
Qed.

Lemma restore_blocks_loc alloc init : forall n bl seeds lasts,
  restore_blocks alloc init n = (bl, seeds, lasts) ->
  forall i x, nth_error bl i = Some x -> exists b, nth_error init i = Some b /\ b_loc x = bs_loc b.
Proof.
  intros n bl seeds lasts H i x Hi. destruct (restore_blocks_written _ _ _ _ _ _ H _ _ Hi) as (b & B1 & _ & B3). eauto.
Qed.

Lemma resolve_restored alloc oldest bl ep bfl seed i :
  resolve_ref (fst (pbl_new alloc oldest bl)) 0 ep bfl seed = Some i ->
  exists q b, nth_error bl q = Some b /\ In seed (bs_seeds b) /\
    (Z.of_N bfl <= Z.of_nat q)%Z /\ i = Z.to_nat (Z.of_nat q - Z.of_N bfl) /\
    option_map b_loc (nth_error (blocks (fst (pbl_new alloc oldest bl))) q) = Some (bs_loc b).
Proof.
  intros Hres. destruct (pbl_new_fields alloc oldest bl) as [Htr Hf].
  destruct (restore_blocks alloc bl 0) as [[bl' seeds'] lasts'] eqn:Er.
  destruct (Hf _ _ _ eq_refl) as (F1 & F2 & F3). clear Hf.
  set (p' := fst (pbl_new alloc oldest bl)) in *.
  unfold resolve_ref in Hres.
  destruct (ref_to_index ep bfl p') as [[[i' sd]|]|] eqn:Eri; try discriminate.
  cbn in Hres. destruct (N.eqb_spec sd seed) as [Es|]; [|discriminate]. injection Hres as Hii. subst i' sd.
  apply ref_to_index_spec in Eri. destruct Eri as (e & la & E1 & E2 & E3 & E4).
  rewrite Htr in E3, E4. rewrite F3 in E1. rewrite F2 in E2.
  destruct (restore_spec _ _ _ _ _ _ Er _ _ E2) as (q & b & Q1 & Q2 & Q3 & Q4).
  rewrite E1 in Q1. injection Q1 as Hla. cbn [plus] in Hla. subst la.
  exists q, b. rewrite F1. splits; auto; lia.
Qed.

Lemma resolve_location sd el ab lc r oldest bl alloc i :
  NoDup sd -> rec_ok sd el ab r -> st_ok sd el lc (oldest, bl) ->
  resolve_ref (fst (pbl_new alloc oldest bl)) 0 (r_epoch r) (r_bfl r) (r_seed r) = Some i ->
  exists a l, nth_error ab (r_up r) = Some a /\
    block_loc (fst (pbl_new alloc oldest bl)) i = Some l /\ nth_error lc a = Some l.
Proof.
  intros Hnd (j & e0 & a & R1 & R2 & R3 & R4) [kst Hst] Hres.
  destruct (resolve_restored _ _ _ _ _ _ _ Hres) as (q & b & Q2 & Q3 & E3 & E4 & Q4).
  destruct (Hst q b Q2) as [L1 L2]. destruct (L2 _ Q3) as (j' & S1 & S2).
  assert (j = j') by (eapply NoDup_nth_eq; [exact Hnd|exact R1|exact S1]). subst j'.
  rewrite R2 in S2. injection S2 as He0. subst e0.
  assert (Ha : a = kst + i) by lia.
  set (p' := fst (pbl_new alloc oldest bl)) in *.
  destruct (nth_error (blocks p') q) as [xq|] eqn:Eq; [|discriminate].
  assert (i < length (blocks p')).
  { assert (q < length (blocks p')) by (apply nth_error_Some; congruence). lia. }
  destruct (nth_error (blocks p') i) as [xi|] eqn:Exi; [|apply nth_error_None in Exi; lia].
  destruct (pbl_new_fields alloc oldest bl) as [_ Hf].
  destruct (restore_blocks alloc bl 0) as [[bl' seeds'] lasts'] eqn:Er.
  destruct (Hf _ _ _ eq_refl) as (F1 & _). fold p' in F1. rewrite F1 in Exi.
  destruct (restore_blocks_loc _ _ _ _ _ _ Er _ _ Exi) as (bi & B1 & B2).
  destruct (Hst i bi B1) as [L3 _].
  exists a, (bs_loc bi). splits; auto.
  - unfold block_loc. fold p'. rewrite F1, Exi, B2. reflexivity.
  - rewrite Ha. exact L3.
Qed.

Theorem crash_safe_location_strong g cfg t0 c :
  length (g_locs g) < 65536 ->
  creach g cfg medium_empty t0 c ->
  forall n ch slot r i, resolves g (crash_of medium_empty c n ch) slot r i ->
  exists up l, nth_error (cs_ups c) (r_up r) = Some up /\
    block_loc (fst (restart (geom g) (m_state (crash_of medium_empty c n ch)))) i = Some l /\
    nth_error (cs_locs c) (up_abs up) = Some l.
Proof.
  intros Hg Hreach n ch slot r i [Hslot Hres].
  pose proof (creach_cinv _ _ _ _ Hg Hreach) as [I1 I2 I3 I4 I5 I6 I7 I8 I9].
  unfold crash_of in *.
  assert (Hpre : Forall (io_ok (cs_seeds c) (cs_elast c) (abss c) (cs_locs c)) (firstn n (cs_log c))).
  { rewrite Forall_forall in *. intros e He. apply I6. eapply in_firstn; eauto. }
  (* the record *)
  destruct (crash_index_in _ _ _ _ Hslot) as [s' Hin].
  assert (Hrec : rec_ok (cs_seeds c) (cs_elast c) (abss c) r).
  { rewrite Forall_forall in Hpre. apply (Hpre _ Hin). }
  (* the state file *)
  assert (Hst : forall x, m_state (crash_medium medium_empty (firstn n (cs_log c)) ch) = Some x ->
                  st_ok (cs_seeds c) (cs_elast c) (cs_locs c) (fst x)).
  { intros x. apply (crash_state_P (fun x => st_ok (cs_seeds c) (cs_elast c) (cs_locs c) (fst x))).
    - apply st_ok_nil.
    - eapply Forall_impl; [|exact Hpre]. intros e He st ->. cbn in He. destruct st. exact He. }
  assert (Hloc : exists a l, nth_error (abss c) (r_up r) = Some a /\
     block_loc (fst (restart (geom g) (m_state (crash_medium medium_empty (firstn n (cs_log c)) ch)))) i = Some l /\
     nth_error (cs_locs c) a = Some l).
  { destruct (m_state (crash_medium medium_empty (firstn n (cs_log c)) ch)) as [[[oldest bl] h]|] eqn:Em.
    - specialize (Hst _ eq_refl). cbn [fst] in Hst. unfold restart in *.
      eapply resolve_location; eauto. destruct I1; assumption.
    - unfold restart in *. eapply resolve_location; eauto.
      + destruct I1; assumption.
      + apply st_ok_nil. }
  destruct Hloc as (a & l & A1 & A2 & A3).
  unfold abss in A1. rewrite nth_error_map in A1.
  destruct (nth_error (cs_ups c) (r_up r)) as [up|] eqn:Eup; [|discriminate]. cbn in A1. inv A1.
  exists up, l. auto.
Qed.

(** the [NoDup] hypothesis is not needed *)
Theorem crash_safe_location : forall g cfg t0 c, length (g_locs g) < 65536 -> NoDup (g_locs g) ->
  creach g cfg medium_empty t0 c ->
  forall n ch slot r i, resolves g (crash_of medium_empty c n ch) slot r i ->
  exists up l, nth_error (cs_ups c) (r_up r) = Some up /\
    block_loc (fst (restart (geom g) (m_state (crash_of medium_empty c n ch)))) i = Some l /\
    nth_error (cs_locs c) (up_abs up) = Some l.
Proof. intros g cfg t0 c Hg _. apply crash_safe_location_strong. exact Hg. Qed.

Lemma step_closed cfg s e s' : step cfg s e = Some (Ok s') ->
  closedForWriting (s_pbl s) = true -> closedForWriting (s_pbl s') = true.
Proof.
  intros H Hc. destruct e; cbn [step] in H.
  - inv H. cbn. unfold push_back. rewrite Hc. exact Hc.
  - destruct (blocks (s_pbl s)) as [|b0 r0]; [discriminate|].
    destruct (pop_front (s_pbl s)) as [p'|] eqn:Ep; [|discriminate]. inv H. cbn.
    destruct (pop_front_spec _ _ Ep) as (b & rest & _ & _ & _ & _ & _ & _ & _ & _ & _ & _ & E). congruence.
  - destruct (_ || _); [|discriminate]. destruct (put_start _ _); [|discriminate]. inv H. exact Hc.
  - destruct (nth_error (s_uploads s) k) as [[[tok sz]|]|]; try discriminate.
    destruct (put_finalize tok blk sz seed (s_pbl s)) as [[p' fr]|] eqn:Ep; [|discriminate]. inv H. cbn.
    destruct (put_finalize_spec _ _ _ _ _ _ _ Ep) as [-> _|]; congruence.
  - inv H. exact Hc.
  - inv H. exact Hc.
  - destruct (estep_effect _ _ _ _ _ H) as (_ & (_ & _ & _ & _ & _ & C & _) & _). auto.
Qed.

Lemma round_up_ge s w : (0 < s)%Z -> (w <= round_up s w)%Z.
Proof.
  intros Hs. unfold round_up.
  pose proof (Z.div_mod (w + s - 1) s ltac:(lia)) as E.
  pose proof (Z.mod_pos_bound (w + s - 1) s Hs) as B. nia.
Qed.

(** [cur0]: the allocation cursors the life started with *)
Record ainv (cur0 : list Z) (c : cst) : Prop := mkAinv {
  ai_len : length (cs_cur c) = length (cs_locs c);
  ai_closed : forall k u, nth_error (cs_ups c) k = Some u ->
     up_abs u < length (cs_locs c) \/
     (closedForWriting (s_pbl (cs_sys c)) = true /\ up_abs u = length (cs_locs c));
  ai_issued : forall k u, nth_error (cs_ups c) k = Some u -> (0 <= up_issued u)%Z;
  ai_up : forall k u, nth_error (cs_ups c) k = Some u -> up_abs u < length (cs_locs c) ->
     exists cur, nth_error (cs_cur c) (up_abs u) = Some cur /\ (up_off u + up_size u <= cur)%Z;
  ai_disj : forall k1 k2 u1 u2, k1 < k2 -> nth_error (cs_ups c) k1 = Some u1 -> nth_error (cs_ups c) k2 = Some u2 ->
     up_abs u1 = up_abs u2 -> up_abs u1 < length (cs_locs c) -> (up_off u1 + up_size u1 <= up_off u2)%Z;
  ai_data : forall k l lo hi, In (IoData k l lo hi) (cs_log c) ->
     exists u, nth_error (cs_ups c) k = Some u /\ nth_error (cs_locs c) (up_abs u) = Some l /\
       (up_off u <= lo /\ lo < hi /\ hi <= up_off u + up_size u)%Z;
  ai_cur0 : forall j x, nth_error cur0 j = Some x ->
     exists x', nth_error (cs_cur c) j = Some x' /\ (x <= x')%Z;
  ai_off0 : forall k u x, nth_error (cs_ups c) k = Some u -> nth_error cur0 (up_abs u) = Some x -> (x <= up_off u)%Z
}.

Definition same_alloc (f : upinfo -> upinfo) : Prop :=
  forall u, up_abs (f u) = up_abs u /\ up_off (f u) = up_off u /\ up_size (f u) = up_size u.

Lemma upd_nth_inv {A} (f : A -> A) l k j y :
  nth_error (upd_nth l k f) j = Some y ->
  exists x, nth_error l j = Some x /\ (y = x \/ (j = k /\ y = f x)).
Proof.
  rewrite nth_error_upd_nth. destruct (Nat.eqb_spec j k).
  - destruct (nth_error l j) as [x|]; cbn; [|discriminate]. intros H; inv H. eauto.
  - intros H. eauto.
Qed.

Lemma in_snoc {A} (l : list A) x y : In y (l ++ [x]) -> In y l \/ y = x.
Proof. rewrite in_app_iff. cbn. intros [H|[H|[]]]; auto. Qed.

Lemma ainv_frame cur0 c c' f k :
  ainv cur0 c -> same_alloc f ->
  (forall u, (0 <= up_issued u)%Z -> (0 <= up_issued (f u))%Z \/ nth_error (cs_ups c) k <> Some u) ->
  cs_ups c' = upd_nth (cs_ups c) k f -> cs_locs c' = cs_locs c -> cs_cur c' = cs_cur c ->
  (closedForWriting (s_pbl (cs_sys c)) = true -> closedForWriting (s_pbl (cs_sys c')) = true) ->
  (forall k0 l lo hi, In (IoData k0 l lo hi) (cs_log c') -> In (IoData k0 l lo hi) (cs_log c) \/
     exists u, nth_error (cs_ups c) k0 = Some u /\ nth_error (cs_locs c) (up_abs u) = Some l /\
       (up_off u <= lo /\ lo < hi /\ hi <= up_off u + up_size u)%Z) ->
  ainv cur0 c'.
Proof.
  intros [A1 A2 A3 A4 A5 A6 A7 A8] Hf Hiss Eu El Ec Hcl Hlog.
  assert (Hget : forall j y, nth_error (cs_ups c') j = Some y ->
            exists x, nth_error (cs_ups c) j = Some x /\ up_abs y = up_abs x /\ up_off y = up_off x
                      /\ up_size y = up_size x /\ (y = x \/ (j = k /\ y = f x))).
  { intros j y H. rewrite Eu in H. apply upd_nth_inv in H. destruct H as [x [Hx Hy]].
    exists x. destruct (Hf x) as (F1 & F2 & F3).
    destruct Hy as [->|[-> ->]]; splits; auto. }
  assert (Hput : forall j x, nth_error (cs_ups c) j = Some x ->
            exists y, nth_error (cs_ups c') j = Some y /\ up_abs y = up_abs x /\ up_off y = up_off x
                      /\ up_size y = up_size x).
  { intros j x H. rewrite Eu, nth_error_upd_nth, H. destruct (Hf x) as (F1 & F2 & F3).
    destruct (Nat.eqb j k); cbn; eauto. }
  constructor; rewrite ?El, ?Ec; auto.
  - intros j y H. destruct (Hget _ _ H) as (x & Hx & E1 & _). rewrite E1.
    destruct (A2 _ _ Hx) as [L|[C L]]; auto.
  - intros j y H. destruct (Hget _ _ H) as (x & Hx & _ & _ & _ & [->|[-> ->]]); [eauto|].
    destruct (Hiss x (A3 _ _ Hx)) as [G|G]; [exact G|contradiction].
  - intros j y H. destruct (Hget _ _ H) as (x & Hx & E1 & E2 & E3 & _). rewrite E1, E2, E3. eauto.
  - intros k1 k2 y1 y2 Hlt H1 H2.
    destruct (Hget _ _ H1) as (x1 & Hx1 & E1 & E2 & E3 & _).
    destruct (Hget _ _ H2) as (x2 & Hx2 & E1' & E2' & E3' & _).
    rewrite E1, E2, E3, E1', E2'. eauto.
  - intros k0 l lo hi Hin.
    assert (exists u, nth_error (cs_ups c) k0 = Some u /\ nth_error (cs_locs c) (up_abs u) = Some l /\
       (up_off u <= lo /\ lo < hi /\ hi <= up_off u + up_size u)%Z) as (x & Hx & X1 & X2).
    { destruct (Hlog _ _ _ _ Hin) as [H|H]; eauto. }
    destruct (Hput _ _ Hx) as (y & Hy & E1 & E2 & E3). exists y. rewrite E1, E2, E3. auto.
  - intros j y x0 H H0. destruct (Hget _ _ H) as (x & Hx & E1 & E2 & _). rewrite E1 in H0. rewrite E2. eauto.
Qed.

Lemma ainv_same cur0 c c' :
  ainv cur0 c -> cs_ups c' = cs_ups c -> cs_locs c' = cs_locs c -> cs_cur c' = cs_cur c ->
  (closedForWriting (s_pbl (cs_sys c)) = true -> closedForWriting (s_pbl (cs_sys c')) = true) ->
  (forall k l lo hi, In (IoData k l lo hi) (cs_log c') -> In (IoData k l lo hi) (cs_log c)) ->
  ainv cur0 c'.
Proof.
  intros [A1 A2 A3 A4 A5 A6 A7 A8] Eu El Ec Hcl Hlog.
  constructor; rewrite ?Eu, ?El, ?Ec; auto.
  intros k u H. destruct (A2 _ _ H) as [L|[C L]]; auto.
Qed.

Lemma upd_nth_id {A} (l : list A) k : upd_nth l k (fun x => x) = l.
Proof. revert k. induction l as [|x l IH]; intros [|k]; cbn; auto. rewrite IH. reflexivity. Qed.

Lemma nth_error_snoc_inv {A} (l : list A) x j y :
  nth_error (l ++ [x]) j = Some y -> nth_error l j = Some y \/ (j = length l /\ y = x).
Proof.
  intros H. destruct (Nat.lt_ge_cases j (length l)).
  - rewrite nth_error_app1 in H by assumption. auto.
  - rewrite nth_error_app2 in H by assumption.
    destruct (j - length l) as [|d] eqn:E; cbn in H; [inv H; right; split; [lia|reflexivity]|].
    rewrite nth_error_nil' in H. discriminate.
Qed.

Definition nodata (e : io irec) : Prop := match e with IoData _ _ _ _ => False | _ => True end.

Lemma isindex_nodata extra : Forall isindex extra -> Forall nodata extra.
Proof. intros H. eapply Forall_impl; [|exact H]. intros [] Hx; cbn in *; auto. Qed.
Lemma issync_nodata extra : Forall issync extra -> Forall nodata extra.
Proof. intros H. eapply Forall_impl; [|exact H]. intros [] Hx; cbn in *; auto. Qed.

Lemma in_app_nodata (L extra : list (io irec)) k l lo hi : Forall nodata extra ->
  In (IoData k l lo hi) (L ++ extra) -> In (IoData k l lo hi) L.
Proof.
  intros Hn H. apply in_app_iff in H. destruct H as [H|H]; [exact H|].
  rewrite Forall_forall in Hn. destruct (Hn _ H).
Qed.

Lemma dir_op_nodata n st : nodata (dir_op n st).
Proof. destruct n as [|[|[|[|[|?]]]]]; exact Logic.I. Qed.

Lemma cstep_ainv cur0 g cfg c e c' : ainv cur0 c -> cstep g cfg c e = Some c' -> ainv cur0 c'.
Proof.
  intros A H. apply cstep_eff in H. eff_cases H.
  - (* tick, cancel, push without a block *)
    apply obs_fields in Hobs. destruct Hobs as (E1 & _ & _ & E4 & E5 & E6 & _). destruct Xrest as (_ & _ & Cu & _).
    apply (ainv_same cur0 c c' A E5 E6 Cu); [rewrite E1; auto|rewrite E4; auto].
  - (* push *)
    destruct A as [A1 A2 A3 A4 A5 A6 A7 A8].
    assert (Hlt : forall k u, nth_error (cs_ups c) k = Some u -> up_abs u < length (cs_locs c)).
    { intros k u H. destruct (A2 _ _ H) as [L|[C' _]]; [exact L|congruence]. }
    constructor; rewrite ?Hu, ?Hlc, ?Xcur, ?Hlg.
    + rewrite !app_length, A1. reflexivity.
    + intros k u H. left. rewrite app_length. cbn. specialize (Hlt _ _ H). lia.
    + exact A3.
    + intros k u H _. destruct (A4 _ _ H (Hlt _ _ H)) as (cur & C1 & C2).
      exists cur. split; [apply nth_error_app_some; exact C1|exact C2].
    + intros k1 k2 u1 u2 Hk H1 H2 Ea _. eapply A5; eauto.
    + intros k l0 lo hi Hin. destruct (A6 _ _ _ _ Hin) as (u & U1 & U2 & U3).
      exists u. split; [exact U1|]. split; [apply nth_error_app_some; exact U2|exact U3].
    + intros j x H. destruct (A7 _ _ H) as (x' & X1 & X2). exists x'. split; [apply nth_error_app_some|]; assumption.
    + exact A8.
  - (* pop *)
    destruct Hal as (L1 & _). destruct Xrest as (_ & _ & Cu & _).
    apply (ainv_same cur0 c c' A Hu L1 Cu); [exact (step_closed _ _ _ _ Xev)|rewrite Hlg; auto].
  - (* put start *)
    destruct Hal as (L1 & _). destruct A as [A1 A2 A3 A4 A5 A6 A7 A8].
    assert (Hdata : forall k l lo hi, In (IoData k l lo hi) (cs_log c) ->
              exists u0, nth_error (cs_ups c ++ [u]) k = Some u0 /\ nth_error (cs_locs c) (up_abs u0) = Some l /\
                (up_off u0 <= lo /\ lo < hi /\ hi <= up_off u0 + up_size u0)%Z).
    { intros k l lo hi Hin. destruct (A6 _ _ _ _ Hin) as (u0 & U1 & U2 & U3).
      exists u0. split; [apply nth_error_app_some; exact U1|]. split; [exact U2|exact U3]. }
    destruct Xcur as [(C & Ea & Eo & Est & Ecur)|(C & Est & Eo & Ecur)].
    + constructor; rewrite ?Hu, ?L1, ?Ecur, ?Hlg, ?Hp; auto.
      * intros k u0 H. apply nth_error_snoc_inv in H. destruct H as [H|[_ ->]]; [|auto].
        destruct (A2 _ _ H) as [L|[C' L]]; auto.
      * intros k u0 H. apply nth_error_snoc_inv in H. destruct H as [H|[_ ->]]; [eauto|lia].
      * intros k u0 H. apply nth_error_snoc_inv in H. destruct H as [H|[_ ->]]; [eauto|lia].
      * intros k1 k2 u1 u2 Hk H1 H2. apply nth_error_snoc_inv in H1, H2.
        destruct H1 as [H1|[-> ->]], H2 as [H2|[-> ->]]; try lia; eauto.
      * intros k u0 x H. apply nth_error_snoc_inv in H. destruct H as [H|[_ ->]]; [eauto|].
        intros H0. rewrite Ea in H0. destruct (A7 _ _ H0) as (x' & X1 & _).
        assert (length (cs_locs c) < length (cs_cur c)) by (apply nth_error_Some; congruence). lia.
    + assert (Habs : up_abs u < length (cs_locs c)).
      { destruct Hop as (l & _ & Hl); [unfold up_open; rewrite Est; reflexivity|]. apply nth_error_Some. congruence. }
      assert (Hcur : forall j, nth_error (upd_nth (cs_cur c) (up_abs u) (fun o => (o + size)%Z)) j =
                       if Nat.eqb j (up_abs u) then option_map (fun o => (o + size)%Z) (nth_error (cs_cur c) j)
                       else nth_error (cs_cur c) j) by (intros; apply nth_error_upd_nth).
      constructor; rewrite ?Hu, ?L1, ?Ecur, ?Hlg, ?Hp; auto.
      * rewrite upd_nth_length. exact A1.
      * intros k u0 H. apply nth_error_snoc_inv in H. destruct H as [H|[_ ->]]; [|auto].
        destruct (A2 _ _ H) as [L|[C' L]]; auto; congruence.
      * intros k u0 H. apply nth_error_snoc_inv in H. destruct H as [H|[_ ->]]; [eauto|lia].
      * intros k u0 H. apply nth_error_snoc_inv in H. destruct H as [H|[_ ->]].
        -- intros L. destruct (A4 _ _ H L) as (cur & C1 & C2). rewrite Hcur, C1.
           destruct (Nat.eqb _ _); cbn; eexists; split; try reflexivity; lia.
        -- intros _. rewrite Hcur, Nat.eqb_refl, Eo. cbn. eexists; split; [reflexivity|lia].
      * intros k1 k2 u1 u2 Hk H1 H2. apply nth_error_snoc_inv in H1, H2.
        destruct H1 as [H1|[-> ->]], H2 as [H2|[-> ->]]; try lia; eauto.
        -- intros Ea L. destruct (A4 _ _ H1 L) as (cur & C1 & C2). rewrite Ea, Eo in C1. inv C1. exact C2.
        -- assert (k2 < length (cs_ups c)) by (apply nth_error_Some; congruence). lia.
      * intros j x H. destruct (A7 _ _ H) as (x' & X1 & X2). rewrite Hcur, X1.
        destruct (Nat.eqb j _); cbn; eexists; split; try reflexivity; lia.
      * intros k u0 x H. apply nth_error_snoc_inv in H. destruct H as [H|[_ ->]]; [eauto|].
        intros H0. destruct (A7 _ _ H0) as (x' & X1 & X2). rewrite Eo in X1. inv X1. exact X2.
  - (* data *)
    destruct Hal as (L1 & _). destruct Xrest as (_ & _ & Cu & _). pose proof (ai_issued _ _ A _ _ Hk) as Hi.
    apply (ainv_frame cur0 c c' (set_issued n) k A); [intros u0; cbn; auto| |exact Hu|exact L1|exact Cu|rewrite Hsys; auto|].
    + intros u0 H0. cbn. destruct (Z.le_gt_cases 0 (up_issued u0 + n)); [auto|]. right. intros E. rewrite Hk in E. inv E. lia.
    + intros k0 l0 lo hi Hin. rewrite Hlg in Hin. apply in_snoc in Hin. destruct Hin as [Hin|Hin]; [auto|].
      inv Hin. right. exists u. splits; auto; lia.
  - (* writer done *)
    destruct Xrest as (_ & _ & Cu & _).
    apply (ainv_frame cur0 c c' (set_state (UpDone ok)) k A);
      [intros u0; cbn; auto|intros u0 H0; left; exact H0|exact Hu|exact Hlc|exact Cu|rewrite Hsys; auto|rewrite Hlg; auto].
  - (* finalize *)
    destruct Hal as (L1 & _).
    apply (ainv_frame cur0 c c' (set_state (UpFin b)) k A);
      [intros u0; cbn; auto|intros u0 H0; left; exact H0|exact Hu|exact L1|exact Xcur|exact (step_closed _ _ _ _ Xev)|].
    intros k0 l lo hi Hin. left. rewrite Hlg in Hin. exact (in_app_nodata _ _ _ _ _ _ (isindex_nodata _ Hex) Hin).
  - (* thread step *)
    apply (ainv_same cur0 c c' A Hu Hlc Xcur); [rewrite Hsys; exact (step_closed _ _ _ _ Hs)|].
    intros k l lo hi Hin. rewrite Hlg in Hin. exact (in_app_nodata _ _ _ _ _ _ (issync_nodata _ Hex) Hin).
  - (* directory operation *)
    destruct Hal as (L1 & _). destruct Xrest as (_ & _ & Cu & _).
    apply (ainv_same cur0 c c' A Hu L1 Cu); [rewrite Hsys; auto|].
    intros k l lo hi Hin. rewrite Hlg in Hin. eapply in_app_nodata; [|exact Hin]. constructor; [apply dir_op_nodata|constructor].
Qed.

Lemma cinit_ainv g base t0 : ainv (cs_cur (cinit g base t0)) (cinit g base t0).
Proof.
  constructor; cbn.
  - unfold restored_cursors. rewrite !map_length. reflexivity.
  - intros k u H. rewrite nth_error_nil' in H. discriminate.
  - intros k u H. rewrite nth_error_nil' in H. discriminate.
  - intros k u H. rewrite nth_error_nil' in H. discriminate.
  - intros k1 k2 u1 u2 _ H. rewrite nth_error_nil' in H. discriminate.
  - intros k l lo hi [].
  - intros j x H. exists x. split; [exact H|lia].
  - intros k u x H. rewrite nth_error_nil' in H. discriminate.
Qed.

Theorem creach_ainv g cfg base t0 c :
  creach g cfg base t0 c -> ainv (cs_cur (cinit g base t0)) c.
Proof. intros [tr H]. eapply (crun_inv g cfg (ainv _)); [apply cstep_ainv|apply cinit_ainv|exact H]. Qed.

(** Two different uploads allocated in the same (real) block have disjoint byte
    ranges, both below the block's cursor; every data write of the log lies
    inside the allocation of the upload it belongs to, in that upload's block. *)
Theorem alloc_disjoint g cfg base t0 c : creach g cfg base t0 c ->
  (forall k1 k2 u1 u2, k1 <> k2 ->
     nth_error (cs_ups c) k1 = Some u1 -> nth_error (cs_ups c) k2 = Some u2 ->
     up_abs u1 = up_abs u2 -> up_abs u1 < length (cs_locs c) ->
     (up_off u1 + up_size u1 <= up_off u2 \/ up_off u2 + up_size u2 <= up_off u1)%Z) /\
  (forall k u, nth_error (cs_ups c) k = Some u -> up_abs u < length (cs_locs c) ->
     exists cur, nth_error (cs_cur c) (up_abs u) = Some cur /\ (up_off u + up_size u <= cur)%Z) /\
  (forall k l lo hi, In (IoData k l lo hi) (cs_log c) ->
     exists u, nth_error (cs_ups c) k = Some u /\ nth_error (cs_locs c) (up_abs u) = Some l /\
       (up_off u <= lo /\ lo < hi /\ hi <= up_off u + up_size u)%Z).
Proof.
  intros R. pose proof (creach_ainv _ _ _ _ _ R) as [A1 A2 A3 A4 A5 A6 A7 A8]. splits; auto.
  intros k1 k2 u1 u2 Hne H1 H2 Ea Hl.
  destruct (Nat.lt_ge_cases k1 k2).
  - left. eapply A5; eauto.
  - right. eapply (A5 k2 k1); eauto; try lia; try congruence.
Qed.

(** an upload whose token was [PutClosed] is recognisable: its block index is out of range *)
Theorem closed_upload_out_of_range g cfg base t0 c k u : creach g cfg base t0 c ->
  nth_error (cs_ups c) k = Some u ->
  up_abs u < length (cs_locs c) \/
  (closedForWriting (s_pbl (cs_sys c)) = true /\ up_abs u = length (cs_locs c)).
Proof. intros R H. eapply (ai_closed _ _ (creach_ainv _ _ _ _ _ R)); eauto. Qed.

Lemma restart_written gm st i b :
  nth_error (blocks (fst (restart gm st))) i = Some b ->
  exists oldest bl h bs, st = Some ((oldest, bl), h) /\ nth_error bl i = Some bs /\
    b_written b = bs_off bs /\ b_loc b = bs_loc bs.
Proof.
  unfold restart. destruct st as [[[oldest bl] h]|].
  - intros H. destruct (pbl_new_fields (fun l _ => gm l) oldest bl) as [_ Hf].
    destruct (restore_blocks (fun l _ => gm l) bl 0) as [[bl' seeds'] lasts'] eqn:Er.
    destruct (Hf _ _ _ eq_refl) as (F1 & _). rewrite F1 in H.
    destruct (restore_blocks_written _ _ _ _ _ _ Er _ _ H) as (bs & B1 & B2 & B3).
    exists oldest, bl, h, bs. auto.
  - cbn. intros H. rewrite nth_error_nil' in H. discriminate.
Qed.

(** NewBlockAtLocation: the cursor of restored block [i] is its restored write
    offset rounded up to a sector, hence at or above it *)
Theorem restored_cursor_rounds_up g base t0 i b : (0 < g_sector g)%Z ->
  nth_error (blocks (fst (restart (geom g) (m_state base)))) i = Some b ->
  nth_error (cs_cur (cinit g base t0)) i = Some (round_up (g_sector g) (b_written b)) /\
  (b_written b <= round_up (g_sector g) (b_written b))%Z /\
  exists oldest bl h bs, m_state base = Some ((oldest, bl), h) /\ nth_error bl i = Some bs /\
    b_written b = bs_off bs /\ b_loc b = bs_loc bs.
Proof.
  intros Hs H. splits.
  - cbn. unfold restored_cursors. rewrite nth_error_map, H. reflexivity.
  - apply round_up_ge. exact Hs.
  - eapply restart_written; eauto.
Qed.

(** cursors never decrease, and every allocation made in a restored block
    starts at or above that block's restored write offset *)
Theorem alloc_above_restored_offset g cfg base t0 c : (0 < g_sector g)%Z ->
  creach g cfg base t0 c ->
  (forall i b, nth_error (blocks (fst (restart (geom g) (m_state base)))) i = Some b ->
     exists cur, nth_error (cs_cur c) i = Some cur /\ (round_up (g_sector g) (b_written b) <= cur)%Z) /\
  (forall k u b, nth_error (cs_ups c) k = Some u ->
     nth_error (blocks (fst (restart (geom g) (m_state base)))) (up_abs u) = Some b ->
     (b_written b <= round_up (g_sector g) (b_written b) /\ round_up (g_sector g) (b_written b) <= up_off u)%Z).
Proof.
  intros Hs R. pose proof (creach_ainv _ _ _ _ _ R) as [A1 A2 A3 A4 A5 A6 A7 A8]. split.
  - intros i b H. destruct (restored_cursor_rounds_up g base t0 i b Hs H) as (C & _). eauto.
  - intros k u b Hu H. destruct (restored_cursor_rounds_up g base t0 _ b Hs H) as (C & G & _).
    split; [exact G|]. eapply A8; eauto.
Qed.

Lemma cstep_cur g cfg c e c' : cstep g cfg c e = Some c' ->
  cs_cur c' = cs_cur c \/ cs_cur c' = cs_cur c ++ [0%Z] \/
  exists abs size, (0 <= size)%Z /\ cs_cur c' = upd_nth (cs_cur c) abs (fun o => (o + size)%Z).
Proof.
  intros H. apply cstep_eff in H. eff_cases H; try (left; apply Xrest); auto.
  destruct Xcur as [(_ & _ & _ & _ & E)|(_ & _ & _ & E)]; [auto|]. right. right. exists (up_abs u), size. auto.
Qed.

Theorem cursor_monotone g cfg tr : forall c c', crun g cfg c tr = Some c' ->
  forall j x, nth_error (cs_cur c) j = Some x -> exists x', nth_error (cs_cur c') j = Some x' /\ (x <= x')%Z.
Proof.
  induction tr as [|e tr IH]; intros c c' H j x Hj; cbn in H.
  - inv H. exists x. split; [exact Hj|lia].
  - destruct (cstep g cfg c e) as [c1|] eqn:Es; [|discriminate].
    assert (exists x1, nth_error (cs_cur c1) j = Some x1 /\ (x <= x1)%Z) as (x1 & H1 & H2).
    { destruct (cstep_cur _ _ _ _ _ Es) as [E|[E|(abs & size & Hs & E)]]; rewrite E.
      - exists x. split; [exact Hj|lia].
      - exists x. split; [apply nth_error_app_some; exact Hj|lia].
      - rewrite nth_error_upd_nth, Hj. destruct (Nat.eqb j abs); cbn; eexists; split; try reflexivity; lia. }
    destruct (IH _ _ H _ _ H1) as (x' & X1 & X2). exists x'. split; [exact X1|lia].
Qed.

Print Assumptions crash_safe_location_strong.
Print Assumptions crash_safe_location.
Print Assumptions creach_cinv.
Print Assumptions alloc_disjoint.
Print Assumptions closed_upload_out_of_range.
Print Assumptions restored_cursor_rounds_up.
Print Assumptions alloc_above_restored_offset.
Print Assumptions cursor_monotone.
