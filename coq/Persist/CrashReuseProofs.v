(** Persist/CrashReuseProofs.v — the "bytes" half of crash safety for the FIRST
    life (base medium = [medium_empty]) of the instrumented transition system
    of Persist/CrashLts.v: the bytes a resolving record designates are, on the
    post-crash data device, the bytes its upload wrote — no surviving write of
    another upload covers them later (region reuse is safe).
    Stdlib only; no axioms. *)
From Coq Require Import List NArith ZArith Bool Arith Lia Permutation.
From BBS Require Import Persist.PBL Persist.PBLProofs Persist.Syncer Persist.SyncerProofs
                        Persist.Crash Persist.CrashLts.
From BBS Require Persist.CrashEpochProofs Persist.CrashAllocProofs Persist.CrashOffsetsProofs.
Import ListNotations.

Module E := BBS.Persist.CrashEpochProofs.
Module A := BBS.Persist.CrashAllocProofs.
Export A(obs, same_pcs, same_alloc3, same_ghost, isindex, issync, set_issued, set_state, eff(..), cstep_eff, obs_fields,
         nodata, isindex_nodata, issync_nodata).
Ltac eff_cases H := A.eff_cases H.

Local Notation log := (list (io irec)).

Ltac splits := repeat match goal with |- _ /\ _ => split end.
Ltac inv H := inversion H; subst; clear H.

Lemma loc_eqb_eq a b : loc_eqb a b = true -> a = b.
Proof.
  unfold loc_eqb. destruct a as [a1 a2], b as [b1 b2]. cbn. intros H.
  apply andb_true_iff in H. destruct H as [H1 H2]. apply Z.eqb_eq in H1, H2. congruence.
Qed.

Lemma loc_eqb_refl a : loc_eqb a a = true.
Proof. unfold loc_eqb. rewrite !Z.eqb_refl. reflexivity. Qed.

Definition covers (w : dwrite) (l : loc) (z : Z) : bool :=
  let '(u, l', lo, hi) := w in loc_eqb l' l && (lo <=? z)%Z && (z <? hi)%Z.
Definition owner (w : dwrite) : nat := fst (fst (fst w)).

Lemma byte_owner_step w ws l z acc :
  byte_owner ws l z (if covers w l z then Some (owner w) else acc) = byte_owner (w :: ws) l z acc.
Proof. destruct w as [[[u l'] lo] hi]. reflexivity. Qed.

Lemma bo_all ws l z k :
  (forall w, In w ws -> covers w l z = true -> owner w = k) -> byte_owner ws l z (Some k) = Some k.
Proof.
  induction ws as [|a ws IH]; intros H; [reflexivity|].
  rewrite <- byte_owner_step. destruct (covers a l z) eqn:Ec.
  - rewrite (H a (or_introl eq_refl) Ec). apply IH. intros w Hw. apply H. right. exact Hw.
  - apply IH. intros w Hw. apply H. right. exact Hw.
Qed.

(** strictly increasing positions, all at or above [lb] *)
Fixpoint inc (lb : nat) (T : list (nat * dwrite)) : Prop :=
  match T with [] => True | x :: t => lb <= fst x /\ inc (S (fst x)) t end.

Lemma inc_weaken T : forall lb lb', lb' <= lb -> inc lb T -> inc lb' T.
Proof. destruct T as [|x t]; cbn; auto. intros lb lb' H [H1 H2]. split; [lia|exact H2]. Qed.

Lemma inc_lb T : forall lb x, inc lb T -> In x T -> lb <= fst x.
Proof.
  induction T as [|y t IH]; intros lb x H Hin; [contradiction|]. cbn in H. destruct H as [H1 H2].
  destruct Hin as [->|Hin]; [exact H1|]. specialize (IH _ _ H2 Hin). lia.
Qed.

Lemma inc_filter f T : forall lb, inc lb T -> inc lb (filter f T).
Proof.
  induction T as [|x t IH]; intros lb H; [exact I|]. cbn in H. destruct H as [H1 H2]. cbn.
  destruct (f x); cbn.
  - split; [exact H1|apply IH; exact H2].
  - eapply inc_weaken; [|apply IH; exact H2]. lia.
Qed.

Lemma inc_select T : forall bs lb, inc lb T -> inc lb (select bs T).
Proof.
  induction T as [|x t IH]; intros bs lb H; [destruct bs; exact I|]. cbn in H. destruct H as [H1 H2].
  destruct bs as [|[|] bs]; cbn; [exact I| |].
  - split; [exact H1|apply IH; exact H2].
  - eapply inc_weaken; [|apply IH; exact H2]. lia.
Qed.

Lemma inc_app T1 : forall lb D T2, lb <= D -> inc lb T1 -> (forall x, In x T1 -> fst x < D) -> inc D T2 ->
  inc lb (T1 ++ T2).
Proof.
  induction T1 as [|x t IH]; intros lb D T2 Hle H1 Hb H2; cbn.
  - eapply inc_weaken; eauto.
  - cbn in H1. destruct H1 as [H1 H1']. split; [exact H1|].
    apply (IH _ D); auto.
    + specialize (Hb x (or_introl eq_refl)). lia.
    + intros y Hy. apply Hb. right. exact Hy.
Qed.

Lemma bo_last (T : list (nat * dwrite)) l z k p w0 : forall lb,
  inc lb T -> In (p, w0) T -> covers w0 l z = true -> owner w0 = k ->
  (forall p' w, In (p', w) T -> p < p' -> covers w l z = true -> owner w = k) ->
  forall acc, byte_owner (map snd T) l z acc = Some k.
Proof.
  induction T as [|x t IH]; intros lb Hi Hin Hc Ho Hafter acc; [contradiction|].
  cbn in Hi. destruct Hi as [Hi1 Hi2]. cbn [map]. rewrite <- byte_owner_step.
  destruct Hin as [->|Hin].
  - cbn [snd]. rewrite Hc, Ho. apply bo_all. intros w Hw Hcw.
    apply in_map_iff in Hw. destruct Hw as [[p' w'] [E Hw]]. cbn in E. subst w'.
    apply (Hafter p' w); auto. right. exact Hw.
    pose proof (inc_lb _ _ _ Hi2 Hw) as Hl. cbn in Hl. lia.
  - eapply (IH _ Hi2 Hin Hc Ho). intros p' w Hw. apply Hafter. right. exact Hw.
Qed.

Lemma data_from_in (L : log) : forall s p w, In (p, w) (data_from s L) <->
  s <= p /\ exists u lc lo hi, w = (u, lc, lo, hi) /\ nth_error L (p - s) = Some (IoData u lc lo hi).
Proof.
  induction L as [|e L IH]; intros s p w.
  - cbn. split; [contradiction|]. intros [_ (u & lc & lo & hi & _ & H)]. rewrite A.nth_error_nil' in H. discriminate.
  - assert (Hrec : In (p, w) (data_from (S s) L) <->
       s <= p /\ p <> s /\ exists u lc lo hi, w = (u, lc, lo, hi) /\ nth_error (e :: L) (p - s) = Some (IoData u lc lo hi)).
    { rewrite IH. split.
      - intros [H1 (u & lc & lo & hi & E & H)]. splits; [lia|lia|]. exists u, lc, lo, hi. split; [exact E|].
        replace (p - s) with (S (p - S s)) by lia. exact H.
      - intros [H1 [H2 (u & lc & lo & hi & E & H)]]. split; [lia|]. exists u, lc, lo, hi. split; [exact E|].
        replace (p - s) with (S (p - S s)) in H by lia. exact H. }
    destruct e; cbn [data_from]; try (rewrite Hrec; split;
      [intros [H1 [H2 H3]]; auto
      |intros [H1 (u0 & lc & lo0 & hi0 & E & H)]; splits; auto;
       [intros ->; rewrite Nat.sub_diag in H; cbn in H; discriminate|eauto 10]]).
    cbn [In]. rewrite Hrec. split.
    + intros [H|[H1 [H2 H3]]]; [|auto]. inv H. split; [lia|]. rewrite Nat.sub_diag. cbn. eauto 10.
    + intros [H1 (u0 & lc & lo0 & hi0 & E & H)]. destruct (Nat.eq_dec p s) as [->|Hne].
      * left. rewrite Nat.sub_diag in H. cbn in H. inv H. reflexivity.
      * right. splits; auto. eauto 10.
Qed.

Lemma data_from_inc (L : log) : forall s, inc s (data_from s L).
Proof.
  induction L as [|e L IH]; intros s; [exact I|].
  destruct e; cbn [data_from]; try (eapply inc_weaken; [|apply IH]; lia).
  cbn. split; [lia|apply IH].
Qed.

Lemma select_map {X Y} (f : X -> Y) : forall bs xs, select bs (map f xs) = map f (select bs xs).
Proof.
  induction bs as [|b bs IH]; intros [|x xs]; cbn; auto. destruct b; cbn; rewrite IH; reflexivity.
Qed.

(** the surviving data writes, as one position-tagged increasing list *)
Definition surv (L : log) (bs : list bool) : list (nat * dwrite) :=
  filter (fun e => fst e <? durable_upto L) (data_from 0 L) ++
  select bs (filter (fun e => negb (fst e <? durable_upto L)) (data_from 0 L)).

Lemma surv_data L bs : data_durable L ++ select bs (data_pending L) = map snd (surv L bs).
Proof. unfold surv, data_durable, data_pending. rewrite map_app, select_map. reflexivity. Qed.

Lemma surv_inc L bs : inc 0 (surv L bs).
Proof.
  unfold surv. apply (inc_app _ 0 (durable_upto L)); [lia| | |].
  - apply inc_filter. apply data_from_inc.
  - intros x Hx. apply filter_In in Hx. destruct Hx as [_ Hx]. apply Nat.ltb_lt in Hx. exact Hx.
  - assert (H : forall T lb, inc lb T -> (forall x, In x T -> durable_upto L <= fst x) -> inc (durable_upto L) T).
    { induction T as [|x t IHt]; intros lb Hi Hb; [exact I|]. cbn in Hi. destruct Hi as [H1 H2]. cbn.
      split; [apply Hb; left; reflexivity|exact H2]. }
    apply (H _ 0).
    + apply inc_select. apply inc_filter. apply data_from_inc.
    + intros x Hx. apply A.select_in in Hx. apply filter_In in Hx. destruct Hx as [_ Hx].
      apply negb_true_iff in Hx. apply Nat.ltb_ge in Hx. exact Hx.
Qed.

Lemma surv_in L bs p w : In (p, w) (surv L bs) ->
  exists u lc lo hi, w = (u, lc, lo, hi) /\ nth_error L p = Some (IoData u lc lo hi).
Proof.
  unfold surv. intros H. apply in_app_iff in H.
  assert (Hd : In (p, w) (data_from 0 L)).
  { destruct H as [H|H]; [|apply A.select_in in H]; apply filter_In in H; tauto. }
  apply data_from_in in Hd. destruct Hd as [_ Hd]. rewrite Nat.sub_0_r in Hd. exact Hd.
Qed.

Lemma surv_durable L bs p u lc lo hi : nth_error L p = Some (IoData u lc lo hi) -> p < durable_upto L ->
  In (p, (u, lc, lo, hi)) (surv L bs).
Proof.
  intros H Hd. unfold surv. apply in_app_iff. left. apply filter_In. split.
  - apply data_from_in. split; [lia|]. rewrite Nat.sub_0_r. eauto 10.
  - cbn. apply Nat.ltb_lt. exact Hd.
Qed.

Lemma crash_medium_data (base : medium irec) (l : log) ch :
  m_data (crash_medium base l ch) = m_data base ++ data_durable l ++ select (c_data ch) (data_pending l).
Proof. unfold crash_medium. destruct (dir_crash _ _ _). reflexivity. Qed.

(** the owner of a byte among the writes of log [L] that survive a crash: a durable covering
    write of [k] after which no other upload's covering write occurs in [L] *)
Theorem owner_of_last_write (L : log) bs l z k p lc lo hi :
  nth_error L p = Some (IoData k lc lo hi) -> p < durable_upto L ->
  covers (k, lc, lo, hi) l z = true ->
  (forall p' k' l' lo' hi', p < p' -> nth_error L p' = Some (IoData k' l' lo' hi') ->
     covers (k', l', lo', hi') l z = true -> k' = k) ->
  byte_owner (data_durable L ++ select bs (data_pending L)) l z None = Some k.
Proof.
  intros Hp Hd Hc Hafter.
  rewrite surv_data. eapply (bo_last _ l z k p (k, lc, lo, hi) 0).
  - apply surv_inc.
  - apply surv_durable; assumption.
  - exact Hc.
  - reflexivity.
  - intros p' w Hin Hlt Hcw. apply surv_in in Hin. destruct Hin as (u & lc' & lo' & hi' & -> & Hn).
    cbn. eapply Hafter; eauto.
Qed.

Lemma cstep_sysinv g cfg c e c' : inv1 (cs_sys c) -> inv3 (cs_sys c) -> cstep g cfg c e = Some c' ->
  inv1 (cs_sys c') /\ inv3 (cs_sys c').
Proof.
  intros I1 I3 H. destruct (A.cstep_sys _ _ _ _ _ H) as [E|[ev Hs]].
  - rewrite E. auto.
  - destruct (step_inv1 _ _ _ _ I1 Hs) as [s2 [E [I1' _]]]. inv E. split; [exact I1'|].
    eapply step_inv3; eauto.
Qed.

Lemma creach_sysinv g cfg base t0 c : creach g cfg base t0 c -> inv1 (cs_sys c) /\ inv3 (cs_sys c).
Proof.
  intros [tr H]. eapply (A.crun_inv g cfg (fun c => inv1 (cs_sys c) /\ inv3 (cs_sys c))); [| |exact H].
  - intros c0 e c1 [J1 J3]. apply cstep_sysinv; assumption.
  - split; [cbn; apply E.restart_inv1|apply init_inv3].
Qed.

Lemma F2_nth_r {X Y} (R : X -> Y -> Prop) l1 l2 : Forall2 R l1 l2 ->
  forall k b, nth_error l2 k = Some b -> exists a, nth_error l1 k = Some a /\ R a b.
Proof.
  induction 1 as [|x y l1 l2 Hxy F IH]; intros [|k] b Hk; cbn in *; try discriminate.
  - inv Hk. eauto.
  - eauto.
Qed.

Lemma F2_refl {X} (R : X -> X -> Prop) l : (forall x, R x x) -> Forall2 R l l.
Proof. intros H. induction l; constructor; auto. Qed.

Lemma F2_upd {X} (R : X -> X -> Prop) f l : (forall x, R x x) -> (forall x, R x (f x)) ->
  forall k, Forall2 R l (upd_nth l k f).
Proof.
  intros H1 H2. induction l as [|x l IH]; intros [|k]; cbn; constructor; auto. apply F2_refl. exact H1.
Qed.

Lemma nth_app_nodata (L extra : log) p k l lo hi : Forall nodata extra ->
  nth_error (L ++ extra) p = Some (IoData k l lo hi) -> nth_error L p = Some (IoData k l lo hi).
Proof.
  intros Hn H. destruct (Nat.lt_ge_cases p (length L)) as [Hl|Hl].
  - rewrite nth_error_app1 in H by exact Hl. exact H.
  - rewrite nth_error_app2 in H by exact Hl. apply nth_error_In in H.
    rewrite Forall_forall in Hn. destruct (Hn _ H).
Qed.

Lemma nodup_app_disj {X} (l1 l2 : list X) x : NoDup (l1 ++ l2) -> In x l1 -> In x l2 -> False.
Proof.
  induction l1 as [|y l1 IH]; cbn; [tauto|]. intros H [->|H1] H2.
  - inv H. apply H3. apply in_app_iff. auto.
  - inv H. eauto.
Qed.

Lemma nodup_app_l {X} (l1 l2 : list X) : NoDup (l1 ++ l2) -> NoDup l1.
Proof. apply E.NoDup_app_l. Qed.

Lemma remove_loc_perm held l : existsb (loc_eqb l) held = true -> Permutation held (l :: remove_loc held l).
Proof.
  induction held as [|y t IH]; cbn; [discriminate|].
  rewrite (A.loc_eqb_sym y l). destruct (loc_eqb l y) eqn:E; cbn.
  - intros _. apply loc_eqb_eq in E. subst y. reflexivity.
  - intros H. eapply Permutation_trans; [apply perm_skip; apply IH; exact H|]. apply perm_swap.
Qed.

Lemma woo_false locs ups l : writer_open_on locs ups l = false <->
  (forall k u, nth_error ups k = Some u -> up_open u = true -> nth_error locs (up_abs u) = Some l -> False).
Proof.
  unfold writer_open_on. split.
  - intros H k u Hk Ho Hl.
    assert (existsb (fun u => up_open u && loc_opt_eqb (up_loc locs u) l) ups = true); [|congruence].
    apply existsb_exists. exists u. split; [eapply nth_error_In; eauto|].
    rewrite Ho. unfold up_loc, loc_opt_eqb. rewrite Hl. apply loc_eqb_refl.
  - intros H. destruct (existsb _ ups) eqn:E; [|reflexivity]. exfalso.
    apply existsb_exists in E. destruct E as [u [Hin Hb]]. apply andb_true_iff in Hb. destruct Hb as [Ho Hl].
    apply In_nth_error in Hin. destruct Hin as [k Hk].
    unfold up_loc, loc_opt_eqb in Hl. destruct (nth_error locs (up_abs u)) as [x|] eqn:Ex; [|discriminate].
    apply loc_eqb_eq in Hl. subst x. eapply H; eauto.
Qed.

Lemma release_regions_spec locs ups rel : forall free held fr hd,
  release_regions locs ups rel free held = (fr, hd) ->
  Permutation (fr ++ hd) (rel ++ free ++ held) /\
  (forall l, In l fr -> In l free \/ writer_open_on locs ups l = false) /\
  (forall l, In l (fr ++ hd) -> In l (free ++ held) \/ In l rel).
Proof.
  induction rel as [|l t IH]; intros free held fr hd H; cbn in H.
  - inv H. cbn. splits; auto.
  - destruct (writer_open_on locs ups l) eqn:Ew; apply IH in H; destruct H as (P & F & M); splits.
    + eapply Permutation_trans; [exact P|]. cbn. rewrite !app_assoc. symmetry. apply Permutation_cons_append.
    + exact F.
    + intros l0 Hl. destruct (M l0 Hl) as [Hm|Hm]; [|right; right; exact Hm].
      rewrite !in_app_iff in Hm. rewrite in_app_iff. cbn in Hm. cbn. intuition.
    + eapply Permutation_trans; [exact P|]. cbn.
      replace (t ++ (free ++ [l]) ++ held) with ((t ++ free) ++ l :: held) by (rewrite <- !app_assoc; reflexivity).
      symmetry. apply Permutation_cons_app. rewrite app_assoc. reflexivity.
    + intros l0 Hl. destruct (F l0 Hl) as [Hf|Hf]; [|auto]. apply in_app_iff in Hf. cbn in Hf.
      destruct Hf as [Hf|[<-|[]]]; auto.
    + intros l0 Hl. destruct (M l0 Hl) as [Hm|Hm]; [|right; right; exact Hm].
      rewrite !in_app_iff in Hm. rewrite in_app_iff. cbn in Hm. cbn. intuition.
Qed.

Definition regions (c : cst) : list loc :=
  map b_loc (blocks (s_pbl (cs_sys c))) ++ toRelease (s_pbl (cs_sys c)) ++ cs_free c ++ cs_held c.

Definition urel (u u' : upinfo) : Prop :=
  up_abs u' = up_abs u /\ (up_open u' = true -> up_open u = true).

Record rinv (g : geo) (c : cst) : Prop := mkRinv {
  r_perm : Permutation (regions c) (g_locs g);
  r_free : forall l, In l (cs_free c) -> writer_open_on (cs_locs c) (cs_ups c) l = false;
  r_open : forall k u a2 l, nth_error (cs_ups c) k = Some u -> up_open u = true -> up_abs u < a2 ->
     nth_error (cs_locs c) (up_abs u) = Some l -> nth_error (cs_locs c) a2 = Some l -> False;
  r_order : forall p1 p2 k1 k2 l lo1 hi1 lo2 hi2 u1 u2, p1 < p2 ->
     nth_error (cs_log c) p1 = Some (IoData k1 l lo1 hi1) -> nth_error (cs_log c) p2 = Some (IoData k2 l lo2 hi2) ->
     nth_error (cs_ups c) k1 = Some u1 -> nth_error (cs_ups c) k2 = Some u2 -> up_abs u1 <= up_abs u2;
  r_lt : forall k u, nth_error (cs_ups c) k = Some u -> up_open u = true -> up_abs u < length (cs_locs c)
}.

Lemma rinv_frame g c c' extra :
  rinv g c -> Permutation (regions c') (regions c) -> cs_locs c' = cs_locs c ->
  Forall2 urel (cs_ups c) (cs_ups c') -> cs_log c' = cs_log c ++ extra -> Forall nodata extra ->
  (forall l, In l (cs_free c') -> In l (cs_free c) \/ writer_open_on (cs_locs c') (cs_ups c') l = false) ->
  rinv g c'.
Proof.
  intros [R1 R2 R3 R4 R6] Hp Hl Hu Hlog Hnd Hf.
  assert (Hold : forall p k l lo hi, nth_error (cs_log c') p = Some (IoData k l lo hi) ->
                   nth_error (cs_log c) p = Some (IoData k l lo hi)).
  { rewrite Hlog. intros. eapply nth_app_nodata; eauto. }
  constructor.
  - eapply Permutation_trans; eauto.
  - intros l Hin. destruct (Hf l Hin) as [H|H]; [|exact H]. apply woo_false. intros k u' Hk Ho Hloc.
    destruct (F2_nth_r _ _ _ Hu _ _ Hk) as [u [Hku (E1 & E5)]].
    rewrite Hl, E1 in Hloc. eapply (proj1 (woo_false _ _ _) (R2 l H)); eauto.
  - intros k u' a2 l Hk Ho Hlt H1 H2.
    destruct (F2_nth_r _ _ _ Hu _ _ Hk) as [u [Hku (E1 & E5)]].
    rewrite Hl in H1, H2. rewrite E1 in H1, Hlt. eapply R3; eauto.
  - intros p1 p2 k1 k2 l lo1 hi1 lo2 hi2 u1' u2' Hlt H1 H2 K1 K2.
    apply Hold in H1, H2.
    destruct (F2_nth_r _ _ _ Hu _ _ K1) as [u1 [Hk1 (E1 & _)]].
    destruct (F2_nth_r _ _ _ Hu _ _ K2) as [u2 [Hk2 (E2 & _)]].
    rewrite E1, E2. eapply R4; eauto.
  - intros k u' Hk Ho.
    destruct (F2_nth_r _ _ _ Hu _ _ Hk) as [u [Hku (E1 & E5)]].
    rewrite Hl, E1. eauto.
Qed.

Lemma urel_refl u : urel u u.
Proof. unfold urel. auto. Qed.

Lemma urel_state st u : st <> UpWriting -> urel u (set_state st u).
Proof. unfold urel, set_state, up_open. cbn. intros H. splits; auto. destruct st; congruence. Qed.

(** what the other invariants give *)
Definition wf_ups (c : cst) : Prop :=
  (forall k l lo hi, In (IoData k l lo hi) (cs_log c) ->
     exists u, nth_error (cs_ups c) k = Some u /\ nth_error (cs_locs c) (up_abs u) = Some l).

Lemma rinv_window g c : NoDup (g_locs g) -> rinv g c -> A.cinv g c ->
  NoDup (regions c) /\
  (forall a l, totalReleased (s_pbl (cs_sys c)) <= a -> nth_error (cs_locs c) a = Some l ->
     In l (map b_loc (blocks (s_pbl (cs_sys c))))) /\
  (forall a1 a2 l, totalReleased (s_pbl (cs_sys c)) <= a1 -> a1 < a2 ->
     nth_error (cs_locs c) a1 = Some l -> nth_error (cs_locs c) a2 = Some l -> False).
Proof.
  intros Hnd R I.
  assert (Hn : NoDup (regions c)).
  { eapply Permutation_NoDup; [apply Permutation_sym; apply (r_perm _ _ R)|exact Hnd]. }
  pose proof (A.ci_locs _ _ I) as Hl. splits; auto.
  - intros a l Ha Hn1. rewrite Hl. eapply nth_error_In.
    rewrite A.nth_error_skipn'. replace (_ + (a - totalReleased (s_pbl (cs_sys c)))) with a by lia. exact Hn1.
  - intros a1 a2 l H1 H2 N1 N2. unfold regions in Hn. apply nodup_app_l in Hn. rewrite Hl in Hn.
    set (tr := totalReleased (s_pbl (cs_sys c))) in *.
    assert (a1 - tr = a2 - tr); [|lia].
    eapply (proj1 (NoDup_nth_error _) Hn).
    + apply nth_error_Some. rewrite A.nth_error_skipn'. replace (tr + (a1 - tr)) with a1 by lia. congruence.
    + rewrite !A.nth_error_skipn'. replace (tr + (a1 - tr)) with a1 by lia.
      replace (tr + (a2 - tr)) with a2 by lia. congruence.
Qed.

Lemma rinv_step g cfg c e c' : NoDup (g_locs g) -> rinv g c -> A.cinv g c -> wf_ups c ->
  cstep g cfg c e = Some c' -> rinv g c'.
Proof.
  intros Hnd R I Wdata H. apply cstep_eff in H. pose proof (r_lt _ _ R) as Wopen.
  destruct (rinv_window _ _ Hnd R I) as (Hn & Hwin & Hwnd).
  eff_cases H.
  - (* trivial *)
    apply obs_fields in Hobs. destruct Hobs as (E1 & E2 & E3 & E4 & E5 & E6 & E7 & E8 & _).
    apply (rinv_frame g c c' [] R); [|exact E6| | |constructor|].
    + unfold regions. rewrite E1, E7, E8. reflexivity.
    + rewrite E5. apply F2_refl. apply urel_refl.
    + rewrite E4, app_nil_r. reflexivity.
    + rewrite E7. auto.
  - (* push *)
    destruct R as [R1 R2 R3 R4 R6].
    assert (Hlin : In l (cs_free c)) by (rewrite Hf; left; reflexivity).
    constructor.
    + eapply Permutation_trans; [|exact R1]. unfold regions. rewrite Hp, Hfr, Hhd, Hf. cbn.
      rewrite map_app. cbn. rewrite <- app_assoc. apply Permutation_app_head. cbn.
      apply Permutation_middle.
    + intros l0 Hin. apply woo_false. intros k u Hk Ho Hloc. rewrite Hu in Hk. rewrite Hlc in Hloc.
      pose proof (Wopen _ _ Hk Ho) as Hlt. rewrite nth_error_app1 in Hloc by exact Hlt.
      assert (Hin0 : In l0 (cs_free c)) by (rewrite Hf; right; rewrite <- Hfr; exact Hin).
      eapply (proj1 (woo_false _ _ _) (R2 l0 Hin0)); eauto.
    + intros k u a2 l0 Hk Ho Hlt N1 N2. rewrite Hu in Hk. rewrite Hlc in N1, N2.
      pose proof (Wopen _ _ Hk Ho) as Hlt'. rewrite nth_error_app1 in N1 by exact Hlt'.
      apply A.nth_error_snoc_inv in N2. destruct N2 as [N2|[_ ->]].
      * eapply (R3 k u a2 l0); eauto.
      * eapply (proj1 (woo_false _ _ _) (R2 l Hlin) k u); eauto.
    + rewrite Hlg, Hu. exact R4.
    + intros k u Hk Ho. rewrite Hu in Hk. rewrite Hlc, app_length. specialize (R6 _ _ Hk Ho). lia.
  - (* pop *)
    destruct Hal as (L1 & L2 & L3).
    destruct (A.pop_front_spec _ _ Hpop) as (b & rest & E1 & E2 & _ & _ & _ & _ & _ & E8 & _).
    apply (rinv_frame g c c' [] R); [|exact L1| | |constructor|].
    + unfold regions. rewrite Hp, E2, E8, L2, L3, E1. cbn.
      replace (map b_loc rest ++ (toRelease (s_pbl (cs_sys c)) ++ [b_loc b]) ++ cs_free c ++ cs_held c)
        with ((map b_loc rest ++ toRelease (s_pbl (cs_sys c))) ++ b_loc b :: cs_free c ++ cs_held c)
        by (rewrite <- !app_assoc; reflexivity).
      symmetry. apply Permutation_cons_app. rewrite app_assoc. reflexivity.
    + rewrite Hu. apply F2_refl. apply urel_refl.
    + rewrite Hlg, app_nil_r. reflexivity.
    + rewrite L2. auto.
  - (* putstart *)
    destruct Hal as (L1 & L2 & L3). destruct R as [R1 R2 R3 R4 R6].
    assert (Hk_old : forall p k l lo hi, nth_error (cs_log c) p = Some (IoData k l lo hi) -> k < length (cs_ups c)).
    { intros p k l lo hi Hp0. apply nth_error_In in Hp0. destruct (Wdata _ _ _ _ Hp0) as (u0 & U & _).
      apply nth_error_Some. congruence. }
    constructor.
    + unfold regions. rewrite Hp, L2, L3. exact R1.
    + intros l0 Hin. rewrite L2 in Hin. apply woo_false. intros k u0 Hk Ho Hloc. rewrite L1 in Hloc. rewrite Hu in Hk.
      apply A.nth_error_snoc_inv in Hk. destruct Hk as [Hk|[_ ->]].
      * eapply (proj1 (woo_false _ _ _) (R2 l0 Hin)); eauto.
      * destruct (Hop Ho) as (l1 & Ha & Hl1). rewrite Hloc in Hl1. inv Hl1.
        eapply (nodup_app_disj _ _ l1 Hn).
        -- eapply Hwin; [|exact Hloc]. lia.
        -- rewrite !in_app_iff. auto.
    + intros k u0 a2 l0 Hk Ho Hlt N1 N2. rewrite L1 in N1, N2. rewrite Hu in Hk.
      apply A.nth_error_snoc_inv in Hk. destruct Hk as [Hk|[_ ->]].
      * eapply (R3 k u0 a2 l0); eauto.
      * destruct (Hop Ho) as (l1 & Ha & Hl1). eapply (Hwnd (up_abs u) a2 l0); eauto. lia.
    + intros p1 p2 k1 k2 l lo1 hi1 lo2 hi2 u1 u2 Hlt P1 P2 K1 K2. rewrite Hlg in P1, P2. rewrite Hu in K1, K2.
      pose proof (Hk_old _ _ _ _ _ P1). pose proof (Hk_old _ _ _ _ _ P2).
      apply A.nth_error_snoc_inv in K1, K2. destruct K1 as [K1|[? _]]; [|lia]. destruct K2 as [K2|[? _]]; [|lia].
      eapply (R4 p1 p2 k1 k2 l lo1 hi1 lo2 hi2 u1 u2); eauto.
    + intros k u0 Hk Ho. rewrite L1. rewrite Hu in Hk. apply A.nth_error_snoc_inv in Hk. destruct Hk as [Hk|[_ ->]]; [eauto|].
      destruct (Hop Ho) as (l1 & Ha & Hl1). apply nth_error_Some. congruence.
  - (* data *)
    destruct Hal as (L1 & L2 & L3). destruct R as [R1 R2 R3 R4 R6].
    assert (Hopen : up_open u = true) by (unfold up_open; rewrite Hst; reflexivity).
    assert (Hget : forall j y, nth_error (cs_ups c') j = Some y ->
              exists x, nth_error (cs_ups c) j = Some x /\ up_abs y = up_abs x /\ up_open y = up_open x).
    { intros j y Hy. rewrite Hu in Hy. apply A.upd_nth_inv in Hy. destruct Hy as [x [Hx Hy]].
      exists x. destruct Hy as [->|[-> ->]]; splits; auto. }
    constructor.
    + unfold regions. rewrite Hsys, L2, L3. exact R1.
    + intros l0 Hin. rewrite L2 in Hin. apply woo_false. intros j y Hy Ho Hloc. rewrite L1 in Hloc.
      destruct (Hget _ _ Hy) as (x & Hx & E1 & E3). rewrite E1 in Hloc. rewrite E3 in Ho.
      eapply (proj1 (woo_false _ _ _) (R2 l0 Hin)); eauto.
    + intros j y a2 l0 Hy Ho Hlt N1 N2. rewrite L1 in N1, N2.
      destruct (Hget _ _ Hy) as (x & Hx & E1 & E3). rewrite E1 in N1, Hlt. rewrite E3 in Ho.
      eapply R3; eauto.
    + intros p1 p2 k1 k2 l0 lo1 hi1 lo2 hi2 u1 u2 Hlt P1 P2 K1 K2. rewrite Hlg in P1, P2.
      destruct (Hget _ _ K1) as (x1 & Hx1 & E1 & _). destruct (Hget _ _ K2) as (x2 & Hx2 & E2 & _). rewrite E1, E2.
      apply E.nth_snoc in P2. destruct P2 as [[Hp2 P2]|[Hp2 P2]].
      * rewrite nth_error_app1 in P1 by lia. eapply (R4 p1 p2 k1 k2 l0 lo1 hi1 lo2 hi2 x1 x2); eauto.
      * injection P2 as -> -> -> ->. rewrite nth_error_app1 in P1 by lia. rewrite Hk in Hx2. inv Hx2.
        destruct (Nat.le_gt_cases (up_abs x1) (up_abs x2)) as [Hle|Hgt]; [exact Hle|exfalso].
        apply nth_error_In in P1. destruct (Wdata _ _ _ _ P1) as (u1' & U1 & U2). rewrite Hx1 in U1. inv U1.
        eapply (R3 k x2 (up_abs u1') l); eauto.
    + intros j y Hy Ho. rewrite L1. destruct (Hget _ _ Hy) as (x & Hx & E1 & E3). rewrite E1. rewrite E3 in Ho. eauto.
  - (* writer done *)
    assert (Hur : Forall2 urel (cs_ups c) (cs_ups c')).
    { rewrite Hu. apply F2_upd; [apply urel_refl|]. intros x. apply urel_state. discriminate. }
    destruct Hfh as [[F1 F2]|(l & Hh & Hwo & F1 & F2)].
    + apply (rinv_frame g c c' [] R); [|exact Hlc|exact Hur| |constructor|].
      * unfold regions. rewrite Hsys, F1, F2. reflexivity.
      * rewrite Hlg, app_nil_r. reflexivity.
      * rewrite F1. auto.
    + apply (rinv_frame g c c' [] R); [|exact Hlc|exact Hur| |constructor|].
      * unfold regions. rewrite Hsys, F1, F2. apply Permutation_app_head. apply Permutation_app_head.
        rewrite <- app_assoc. apply Permutation_app_head. cbn. symmetry. apply remove_loc_perm. exact Hh.
      * rewrite Hlg, app_nil_r. reflexivity.
      * intros l0 Hin. rewrite F1 in Hin. apply in_app_iff in Hin. destruct Hin as [Hin|[<-|[]]]; auto.
  - (* finalize *)
    destruct Hal as (L1 & L2 & L3).
    apply (rinv_frame g c c' extra R); [|exact L1| |exact Hlg| |].
    + unfold regions. rewrite Hp, L2, L3.
      destruct (A.put_finalize_spec _ _ _ _ _ _ _ Hpf) as [-> _|abs off _ _ _ _ _ Q1 _ Q2 _ _]; [reflexivity|].
      rewrite Q1, Q2. reflexivity.
    + rewrite Hu. apply F2_upd; [apply urel_refl|]. intros x. apply urel_state. discriminate.
    + apply isindex_nodata. exact Hex.
    + rewrite L2. auto.
  - (* thread *)
    destruct (A.estep_effect _ _ _ _ _ Hs) as (_ & (S1 & _) & _).
    destruct (release_regions_spec _ _ _ _ _ _ _ Hrr) as (P & F & _).
    apply (rinv_frame g c c' extra R); [|exact Hlc| |exact Hlg| |].
    + unfold regions. rewrite Hsys, Hfr, Hhd, S1, Htr. apply Permutation_app_head.
      eapply Permutation_trans; [apply Permutation_app_head; exact P|].
      rewrite !app_assoc. apply Permutation_app_tail. apply Permutation_app_tail. apply Permutation_app_comm.
    + rewrite Hu. apply F2_refl. apply urel_refl.
    + apply issync_nodata. exact Hex.
    + intros l0 Hin. rewrite Hfr in Hin. rewrite Hlc, Hu. auto.
  - (* dir *)
    destruct Hal as (L1 & L2 & L3).
    apply (rinv_frame g c c' [dir_op (cs_dirpc c) (st, g_hinit g)] R); [|exact L1| |exact Hlg| |].
    + unfold regions. rewrite Hsys, L2, L3. reflexivity.
    + rewrite Hu. apply F2_refl. apply urel_refl.
    + constructor; [|constructor]. destruct (cs_dirpc c) as [|[|[|[|[|?]]]]]; exact Logic.I.
    + rewrite L2. auto.
Qed.

Lemma crun_app g cfg t1 : forall c t2,
  crun g cfg c (t1 ++ t2) = match crun g cfg c t1 with Some c' => crun g cfg c' t2 | None => None end.
Proof.
  induction t1 as [|e t1 IH]; intros c t2; cbn; [reflexivity|].
  destruct (cstep g cfg c e); [apply IH|reflexivity].
Qed.

Lemma creach_step g cfg base t0 c e c' : creach g cfg base t0 c -> cstep g cfg c e = Some c' -> creach g cfg base t0 c'.
Proof. intros [tr H] Hs. exists (tr ++ [e]). rewrite crun_app, H. cbn. rewrite Hs. reflexivity. Qed.

Lemma creach_wf_ups g cfg base t0 c : creach g cfg base t0 c -> wf_ups c.
Proof.
  intros R k l lo hi Hin. destruct (A.alloc_disjoint _ _ _ _ _ R) as (_ & _ & D).
  destruct (D _ _ _ _ Hin) as (u & U1 & U2 & _). eauto.
Qed.

Lemma cinit_rinv g t0 : rinv g (cinit g medium_empty t0).
Proof.
  constructor; cbn.
  - unfold regions. cbn. rewrite app_nil_r. reflexivity.
  - intros l _. reflexivity.
  - intros k u a2 l H. rewrite A.nth_error_nil' in H. discriminate.
  - intros p1 p2 k1 k2 l lo1 hi1 lo2 hi2 u1 u2 _ H. rewrite A.nth_error_nil' in H. discriminate.
  - intros k u H. rewrite A.nth_error_nil' in H. discriminate.
Qed.

Lemma creach_ind g cfg base t0 (P : cst -> Prop) :
  P (cinit g base t0) ->
  (forall c e c', creach g cfg base t0 c -> P c -> cstep g cfg c e = Some c' -> P c') ->
  forall c, creach g cfg base t0 c -> P c.
Proof.
  intros H0 Hstep c [tr H].
  apply (A.crun_inv g cfg (fun c => creach g cfg base t0 c /\ P c)) with (tr := tr) (c := cinit g base t0); [| |exact H].
  - intros c0 e c1 [R0 P0] Hs. split; [eapply creach_step; eauto|eapply Hstep; eauto].
  - split; [exists []; reflexivity|exact H0].
Qed.

Theorem creach_rinv g cfg t0 c : length (g_locs g) < 65536 -> NoDup (g_locs g) ->
  creach g cfg medium_empty t0 c -> rinv g c.
Proof.
  intros Hg Hnd. apply creach_ind; [apply cinit_rinv|].
  intros c0 e c' R P Hs. eapply rinv_step; eauto.
  - eapply A.creach_cinv; eauto.
  - eapply creach_wf_ups; eauto.
Qed.

(** (1) the data writes of an upload tile its allocation up to [up_issued] *)
Theorem upload_writes_tile g cfg t0 c : length (g_locs g) < 65536 -> NoDup (g_locs g) ->
  creach g cfg medium_empty t0 c ->
  forall k u z, nth_error (cs_ups c) k = Some u -> (up_off u <= z < up_off u + up_issued u)%Z ->
    exists p l lo hi, nth_error (cs_log c) p = Some (IoData k l lo hi) /\ (lo <= z < hi)%Z /\
      nth_error (cs_locs c) (up_abs u) = Some l.
Proof. intros _ _ R. exact (CrashOffsetsProofs.issued_bytes_written _ _ _ _ _ R). Qed.

(** (2) a data write of another upload allocated in the SAME block does not touch the allocation *)
Theorem same_block_disjoint g cfg base t0 c : creach g cfg base t0 c ->
  forall k u k' u' l lo hi z, k' <> k ->
    nth_error (cs_ups c) k = Some u -> nth_error (cs_ups c) k' = Some u' -> up_abs u' = up_abs u ->
    In (IoData k' l lo hi) (cs_log c) -> (lo <= z < hi)%Z -> (up_off u <= z < up_off u + up_size u)%Z -> False.
Proof.
  intros R k u k' u' l lo hi z Hne Hk Hk' Ha Hin Hz Hz'.
  destruct (A.alloc_disjoint _ _ _ _ _ R) as (D1 & _ & D3).
  destruct (D3 _ _ _ _ Hin) as (u0 & U1 & U2 & U3). rewrite Hk' in U1. inv U1.
  assert (Hlt : up_abs u0 < length (cs_locs c)) by (apply nth_error_Some; congruence).
  destruct (D1 k' k u0 u Hne Hk' Hk Ha Hlt); lia.
Qed.

(** (3) window, to-be-released, free and held regions are pairwise distinct *)
Theorem regions_distinct g cfg t0 c : length (g_locs g) < 65536 -> NoDup (g_locs g) ->
  creach g cfg medium_empty t0 c ->
  NoDup (skipn (totalReleased (s_pbl (cs_sys c))) (cs_locs c) ++ toRelease (s_pbl (cs_sys c)) ++ cs_free c ++ cs_held c)
  /\ Permutation (skipn (totalReleased (s_pbl (cs_sys c))) (cs_locs c) ++ toRelease (s_pbl (cs_sys c)) ++ cs_free c ++ cs_held c)
                 (g_locs g).
Proof.
  intros Hg Hnd R. pose proof (creach_rinv _ _ _ _ Hg Hnd R) as RI.
  pose proof (A.creach_cinv _ _ _ _ Hg R) as I. rewrite <- (A.ci_locs _ _ I).
  split; [apply (rinv_window _ _ Hnd RI I)|apply (r_perm _ _ RI)].
Qed.

(** writes into an earlier block with the same region all precede writes into a later one *)
Theorem reuse_writes_ordered g cfg t0 c : length (g_locs g) < 65536 -> NoDup (g_locs g) ->
  creach g cfg medium_empty t0 c ->
  forall p1 p2 k1 k2 l lo1 hi1 lo2 hi2 u1 u2, p1 < p2 ->
     nth_error (cs_log c) p1 = Some (IoData k1 l lo1 hi1) -> nth_error (cs_log c) p2 = Some (IoData k2 l lo2 hi2) ->
     nth_error (cs_ups c) k1 = Some u1 -> nth_error (cs_ups c) k2 = Some u2 -> up_abs u1 <= up_abs u2.
Proof. intros Hg Hnd R. apply (r_order _ _ (creach_rinv _ _ _ _ Hg Hnd R)). Qed.

Lemma last_write_owner g cfg base t0 c n bs k up l z :
  creach g cfg base t0 c ->
  (forall p1 p2 k1 k2 l lo1 hi1 lo2 hi2 u1 u2, p1 < p2 ->
     nth_error (cs_log c) p1 = Some (IoData k1 l lo1 hi1) -> nth_error (cs_log c) p2 = Some (IoData k2 l lo2 hi2) ->
     nth_error (cs_ups c) k1 = Some u1 -> nth_error (cs_ups c) k2 = Some u2 -> up_abs u1 <= up_abs u2) ->
  nth_error (cs_ups c) k = Some up -> nth_error (cs_locs c) (up_abs up) = Some l -> up_issued up = up_size up ->
  (forall q l' lo hi, nth_error (cs_log c) q = Some (IoData k l' lo hi) -> q < durable_upto (firstn n (cs_log c))) ->
  (forall p' k' lo' hi' u', p' < n -> nth_error (cs_log c) p' = Some (IoData k' l lo' hi') ->
     nth_error (cs_ups c) k' = Some u' -> up_abs up < up_abs u' -> False) ->
  (up_off up <= z < up_off up + up_size up)%Z ->
  byte_owner (data_durable (firstn n (cs_log c)) ++ select bs (data_pending (firstn n (cs_log c)))) l z None = Some k.
Proof.
  intros R Hord Hk Hl Hiss Hdur Hlater Hz.
  destruct (CrashOffsetsProofs.issued_bytes_written _ _ _ _ _ R k up z Hk ltac:(lia)) as (p & l0 & lo & hi & P1 & P2 & P3).
  rewrite Hl in P3. inv P3.
  pose proof (Hdur _ _ _ _ P1) as Hpd.
  pose proof (E.durable_le_length (firstn n (cs_log c))) as Hdl. rewrite firstn_length in Hdl.
  eapply (owner_of_last_write _ bs l0 z k p l0 lo hi).
  - rewrite E.nth_firstn_lt by lia. exact P1.
  - exact Hpd.
  - cbn. rewrite loc_eqb_refl. cbn. apply andb_true_iff. split; [apply Z.leb_le|apply Z.ltb_lt]; lia.
  - intros p' k' l' lo' hi' Hpp Hp' Hc. destruct (Nat.eq_dec k' k) as [|Hne]; [assumption|exfalso].
    apply E.nth_firstn in Hp'. destruct Hp' as [Hpn Hp'].
    cbn in Hc. apply andb_true_iff in Hc. destruct Hc as [Hc Hc3]. apply andb_true_iff in Hc. destruct Hc as [Hc1 Hc2].
    apply loc_eqb_eq in Hc1. subst l'. apply Z.leb_le in Hc2. apply Z.ltb_lt in Hc3.
    destruct (A.alloc_disjoint _ _ _ _ _ R) as (_ & _ & D3).
    destruct (D3 _ _ _ _ (nth_error_In _ _ Hp')) as (u' & W1 & W2 & W3).
    destruct (lt_eq_lt_dec (up_abs u') (up_abs up)) as [[Hlt|Heq]|Hgt].
    + pose proof (Hord p p' k k' l0 lo hi lo' hi' up u' Hpp P1 Hp' Hk W1). lia.
    + eapply (same_block_disjoint _ _ _ _ _ R k up k' u'); eauto using nth_error_In; lia.
    + eapply (Hlater p' k' lo' hi' u'); eauto.
Qed.

(** no write into a LATER block on the same region is in the crashed prefix *)
Definition no_later_reuse (c : cst) (n : nat) (k : nat) : Prop :=
  forall up p' k' l' lo' hi' u', nth_error (cs_ups c) k = Some up ->
    p' < n -> nth_error (cs_log c) p' = Some (IoData k' l' lo' hi') -> nth_error (cs_ups c) k' = Some u' ->
    up_abs up < up_abs u' -> nth_error (cs_locs c) (up_abs up) = Some l' -> False.

Theorem crash_safe_bytes_partial : forall g cfg t0 c, length (g_locs g) < 65536 -> NoDup (g_locs g) ->
  creach g cfg medium_empty t0 c ->
  forall n ch slot r i, resolves g (crash_of medium_empty c n ch) slot r i ->
  no_later_reuse c n (r_up r) ->
  exists up l, nth_error (cs_ups c) (r_up r) = Some up /\
    block_loc (fst (restart (geom g) (m_state (crash_of medium_empty c n ch)))) i = Some l /\
    nth_error (cs_locs c) (up_abs up) = Some l /\
    forall z, (r_off r <= z < r_off r + r_size r)%Z ->
      byte_owner (m_data (crash_of medium_empty c n ch)) l z None = Some (r_up r).
Proof.
  intros g cfg t0 c Hg Hnd R n ch slot r i Hres Hlater.
  destruct (A.crash_safe_location _ _ _ _ Hg Hnd R _ _ _ _ _ Hres) as (up & l & U1 & U2 & U3).
  destruct (E.crash_safe_durable _ _ _ _ R _ _ _ _ _ Hres) as (up' & V1 & _ & V3 & V4 & _ & V6 & V7).
  rewrite U1 in V1. inv V1.
  exists up', l. splits; auto. intros z Hz.
  unfold crash_of. rewrite crash_medium_data. cbn [m_data medium_empty app].
  eapply (last_write_owner g cfg medium_empty t0 c n _ (r_up r) up' l z R); eauto; [|lia].
  apply (r_order _ _ (creach_rinv _ _ _ _ Hg Hnd R)).
Qed.

(** scan: (position, directory operations of the current attempt done, position of the
    current attempt's write, position of the write of the last attempt whose directory
    fsync is in the log) *)
Definition dstep (st : nat * nat * nat * option nat) (e : io irec) : nat * nat * nat * option nat :=
  let '(pos, pc, wc, lw) := st in
  match e with
  | IoRemoveNew => (S pos, 1, wc, lw)
  | IoCreateNew => (S pos, 2, wc, lw)
  | IoWriteNew _ => (S pos, 3, pos, lw)
  | IoFsyncNew => (S pos, 4, wc, lw)
  | IoRenameNew => (S pos, 5, wc, lw)
  | IoDirSync => (S pos, 6, wc, Some wc)
  | _ => (S pos, pc, wc, lw)
  end.
Definition dscan (L : log) := fold_left dstep L (0, 0, 0, None).
Definition dpc (L : log) : nat := snd (fst (fst (dscan L))).
Definition dwc (L : log) : nat := snd (fst (dscan L)).
Definition dlw (L : log) : option nat := snd (dscan L).

(** every directory operation but the first continues the attempt in progress *)
Definition dok (pc : nat) (e : io irec) : Prop :=
  match e with
  | IoCreateNew => pc = 1 | IoWriteNew _ => pc = 2 | IoFsyncNew => pc = 3 | IoRenameNew => pc = 4
  | IoDirSync => pc = 5 | _ => True
  end.
Definition shaped (L : log) : Prop := forall q e, nth_error L q = Some e -> dok (dpc (firstn q L)) e.

Lemma dscan_snoc L e : dscan (L ++ [e]) = dstep (dscan L) e.
Proof. unfold dscan. rewrite fold_left_app. reflexivity. Qed.

Lemma dscan_facts L : fst (fst (fst (dscan L))) = length L /\ dwc L <= length L /\
  (forall lw, dlw L = Some lw -> lw <= dwc L).
Proof.
  induction L as [|e L IH] using rev_ind; [cbn; splits; auto; discriminate|].
  unfold dwc, dlw in *. rewrite dscan_snoc, app_length. cbn [length].
  destruct (dscan L) as [[[pos pc] wc] lw]. cbn in IH. destruct IH as (I1 & I2 & I3). subst pos.
  destruct e; cbn; splits; try lia; auto; try (intros lw0 H0; specialize (I3 _ H0); lia).
  intros lw0 H0. inv H0. lia.
Qed.

Lemma shaped_snoc L e : shaped (L ++ [e]) -> shaped L /\ dok (dpc L) e.
Proof.
  intros H. split.
  - intros q x Hq. pose proof (H q x (E.nth_snoc_old _ _ _ _ Hq)) as H1.
    rewrite E.firstn_app_le in H1; [exact H1|]. apply Nat.lt_le_incl. eapply E.nth_lt; eauto.
  - pose proof (H (length L) e (E.nth_snoc_new _ _)) as H1.
    rewrite firstn_app, firstn_all, Nat.sub_diag in H1. cbn in H1. rewrite app_nil_r in H1. exact H1.
Qed.

Lemma shaped_snoc_intro L e : shaped L -> dok (dpc L) e -> shaped (L ++ [e]).
Proof.
  intros H He q x Hq. apply E.nth_snoc in Hq. destruct Hq as [[Hl Hq]|[-> ->]].
  - rewrite E.firstn_app_le by lia. eauto.
  - rewrite firstn_app, firstn_all, Nat.sub_diag. cbn. rewrite app_nil_r. exact He.
Qed.

Lemma shaped_firstn L n : shaped L -> shaped (firstn n L).
Proof.
  intros H q e Hq. apply E.nth_firstn in Hq. destruct Hq as [Hl Hq].
  rewrite firstn_firstn. replace (Nat.min q n) with q by lia. eauto.
Qed.

Lemma set_nth_same {T} (l : list T) : forall i x, i < length l -> nth_error (set_nth l i x) i = Some x.
Proof. induction l as [|h t IH]; intros [|i] x H; cbn in *; try lia; auto. apply IH. lia. Qed.

Lemma set_nth_other {T} (l : list T) : forall i j x, j <> i -> nth_error (set_nth l i x) j = nth_error l j.
Proof. induction l as [|h t IH]; intros [|i] [|j] x H; cbn; auto; try congruence. Qed.

Lemma set_nth_length {T} (l : list T) : forall i x, length (set_nth l i x) = length l.
Proof. induction l as [|h t IH]; intros [|i] x; cbn; auto. Qed.

Definition candp (ns0 : option nat * option nat) (pend : list nsop) (f : nat) : Prop :=
  exists k, snd (fold_left ns_apply (firstn k pend) ns0) = Some f.
Definition cand (d : dirst) (f : nat) : Prop := candp (d_dnew d, d_dstate d) (d_pend d) f.

Lemma candp_snoc ns0 pend o f : candp ns0 (pend ++ [o]) f ->
  candp ns0 pend f \/ snd (ns_apply (fold_left ns_apply pend ns0) o) = Some f.
Proof.
  intros [k Hk]. destruct (Nat.le_gt_cases k (length pend)) as [Hle|Hgt].
  - left. exists k. rewrite E.firstn_app_le in Hk by exact Hle. exact Hk.
  - right. rewrite firstn_all2 in Hk by (rewrite app_length; cbn; lia).
    rewrite fold_left_app in Hk. exact Hk.
Qed.

Lemma candp_all ns0 pend f : snd (fold_left ns_apply pend ns0) = Some f -> candp ns0 pend f.
Proof. intros H. exists (length pend). rewrite firstn_all. exact H. Qed.

Definition good (L : log) (d : dirst) (f : nat) : Prop :=
  exists st pos, nth_error (d_files d) f = Some (Some st, true) /\ nth_error L pos = Some (IoWriteNew st) /\
    forall lw, dlw L = Some lw -> lw <= pos.

Lemma good_ext L d e d' f : good L d f ->
  (forall x, nth_error (d_files d) f = Some x -> nth_error (d_files d') f = Some x) ->
  dlw (L ++ [e]) = dlw L -> good (L ++ [e]) d' f.
Proof.
  intros (st & pos & G1 & G2 & G3) Hf Hl. exists st, pos. splits; auto.
  - apply E.nth_snoc_old. exact G2.
  - rewrite Hl. exact G3.
Qed.

Definition bgood (st0 : option sfile) (L : log) (d : dirst) (f : nat) : Prop :=
  good L d f \/ (exists s, st0 = Some s /\ f = 0 /\ nth_error (d_files d) 0 = Some (Some s, true) /\ dlw L = None).

Lemma bgood_ext st0 L d e d' f : bgood st0 L d f ->
  (forall x, nth_error (d_files d) f = Some x -> nth_error (d_files d') f = Some x) ->
  dlw (L ++ [e]) = dlw L -> bgood st0 (L ++ [e]) d' f.
Proof.
  intros [G|(s & E1 & E2 & E3 & E4)] Hf Hl; [left; eapply good_ext; eauto|].
  right. exists s. subst f. repeat split; auto. rewrite Hl. exact E4.
Qed.

Lemma bgood_lt st0 L d f : bgood st0 L d f -> f < length (d_files d).
Proof.
  intros [(st & pos & G1 & _)|(s & _ & E2 & E3 & _)]; [eapply E.nth_lt; eauto|].
  subst f. eapply E.nth_lt; eauto.
Qed.

Record DI (st0 : option sfile) (L : log) (d : dirst) : Prop := mkDI {
  di_vol : fold_left ns_apply (d_pend d) (d_dnew d, d_dstate d) = (d_vnew d, d_vstate d);
  di_good : forall f, cand d f -> bgood st0 L d f;
  di_new : forall f, d_vnew d = Some f -> f < length (d_files d) /\ ~ cand d f;
  di_pc : match dpc L with
          | 2 => exists f, d_vnew d = Some f
          | 3 => exists f st b, d_vnew d = Some f /\ nth_error (d_files d) f = Some (Some st, b) /\
                   nth_error L (dwc L) = Some (IoWriteNew st)
          | 4 => exists f st, d_vnew d = Some f /\ nth_error (d_files d) f = Some (Some st, true) /\
                   nth_error L (dwc L) = Some (IoWriteNew st)
          | 5 => d_vnew d = None /\ exists f st, d_vstate d = Some f /\
                   nth_error (d_files d) f = Some (Some st, true) /\ nth_error L (dwc L) = Some (IoWriteNew st)
          | _ => True
          end
}.

Lemma DI_step st0 L d e : DI st0 L d -> dok (dpc L) e -> DI st0 (L ++ [e]) (dir_step d e).
Proof.
  intros [V G N P] Hok.
  pose proof (dscan_facts L) as (F1 & F2 & F3).
  assert (Hsc : dscan (L ++ [e]) = dstep (dscan L) e) by apply dscan_snoc.
  unfold dpc, dwc, dlw in *.
  destruct (dscan L) as [[[pos pc] wc] lw] eqn:Eds. cbn [fst snd] in *. subst pos.
  assert (Hsame : forall d', d_files d' = d_files d -> d_vnew d' = d_vnew d -> d_vstate d' = d_vstate d ->
            d_dnew d' = d_dnew d -> d_dstate d' = d_dstate d -> d_pend d' = d_pend d ->
            dstep (length L, pc, wc, lw) e = (S (length L), pc, wc, lw) -> DI st0 (L ++ [e]) d').
  { intros d' E1 E2 E3 E4 E5 E6 E7. unfold cand in *.
    constructor; unfold cand, dpc, dwc, dlw; rewrite ?Hsc, ?E7, ?E1, ?E2, ?E3, ?E4, ?E5, ?E6; cbn [fst snd]; auto.
    - intros f Hc. eapply bgood_ext; [apply G; exact Hc|rewrite E1; auto|unfold dlw; rewrite Hsc, Eds, E7; reflexivity].
    - destruct pc as [|[|[|[|[|[|?]]]]]]; auto.
      + destruct P as (f & st & b & P1 & P2 & P3). exists f, st, b. splits; auto. apply E.nth_snoc_old. exact P3.
      + destruct P as (f & st & P1 & P2 & P3). exists f, st. splits; auto. apply E.nth_snoc_old. exact P3.
      + destruct P as (P0 & f & st & P1 & P2 & P3). split; auto. exists f, st. splits; auto. apply E.nth_snoc_old. exact P3. }
  destruct e; try (apply Hsame; reflexivity).
  - (* remove *)
    constructor; unfold cand, dpc, dwc, dlw; rewrite ?Hsc; cbn [dir_step dstep fst snd d_files d_vnew d_vstate d_dnew d_dstate d_pend].
    + rewrite fold_left_app, V. reflexivity.
    + intros f Hc. apply candp_snoc in Hc. rewrite V in Hc. cbn in Hc.
      assert (Hc' : cand d f) by (destruct Hc as [Hc|Hc]; [exact Hc|apply candp_all; rewrite V; exact Hc]).
      eapply bgood_ext; [apply G; exact Hc'|auto|]. unfold dlw. rewrite Hsc, Eds. reflexivity.
    + discriminate.
    + exact Logic.I.
  - (* create *)
    cbn in Hok. subst pc.
    constructor; unfold cand, dpc, dwc, dlw; rewrite ?Hsc; cbn [dir_step dstep fst snd d_files d_vnew d_vstate d_dnew d_dstate d_pend].
    + rewrite fold_left_app, V. reflexivity.
    + intros f Hc. apply candp_snoc in Hc. rewrite V in Hc. cbn in Hc.
      assert (Hc' : cand d f) by (destruct Hc as [Hc|Hc]; [exact Hc|apply candp_all; rewrite V; exact Hc]).
      eapply bgood_ext; [apply G; exact Hc'| |].
      * intros x Hx. cbn. apply A.nth_error_app_some. exact Hx.
      * unfold dlw. rewrite Hsc, Eds. reflexivity.
    + intros f Hf. inv Hf. rewrite app_length. cbn. split; [lia|]. intros Hc.
      apply candp_snoc in Hc. rewrite V in Hc. cbn in Hc.
      assert (Hc' : cand d (length (d_files d))) by (destruct Hc as [Hc|Hc]; [exact Hc|apply candp_all; rewrite V; exact Hc]).
      pose proof (bgood_lt _ _ _ _ (G _ Hc')). lia.
    + eauto.
  - (* write *)
    cbn in Hok. subst pc. destruct P as [f Pf]. destruct (N f Pf) as [Nl Nc].
    cbn [dir_step]. rewrite Pf.
    constructor; unfold cand, dpc, dwc, dlw; rewrite ?Hsc; cbn [dstep fst snd d_files d_vnew d_vstate d_dnew d_dstate d_pend].
    + rewrite V, Pf. reflexivity.
    + intros f0 Hc. eapply bgood_ext; [apply G; exact Hc| |].
      * intros x Hx. cbn. rewrite set_nth_other; [exact Hx|]. intros ->. apply Nc. exact Hc.
      * unfold dlw. rewrite Hsc, Eds. reflexivity.
    + intros f0 Hf0. inv Hf0. rewrite set_nth_length. split; [exact Nl|exact Nc].
    + exists f, st, false. splits; auto.
      * apply set_nth_same. exact Nl.
      * apply E.nth_snoc_new.
  - (* fsync *)
    cbn in Hok. subst pc. destruct P as (f & st & b & Pf & P2 & P3). destruct (N f Pf) as [Nl Nc].
    cbn [dir_step]. rewrite Pf.
    constructor; unfold cand, dpc, dwc, dlw; rewrite ?Hsc; cbn [dstep fst snd d_files d_vnew d_vstate d_dnew d_dstate d_pend].
    + rewrite V, Pf. reflexivity.
    + intros f0 Hc. eapply bgood_ext; [apply G; exact Hc| |].
      * intros x Hx. cbn. rewrite set_nth_other; [exact Hx|]. intros ->. apply Nc. exact Hc.
      * unfold dlw. rewrite Hsc, Eds. reflexivity.
    + intros f0 Hf0. inv Hf0. rewrite set_nth_length. split; [exact Nl|exact Nc].
    + exists f, st. splits; auto.
      * rewrite set_nth_same by exact Nl. rewrite (nth_error_nth _ _ _ P2). reflexivity.
      * apply E.nth_snoc_old. exact P3.
  - (* rename *)
    cbn in Hok. subst pc. destruct P as (f & st & Pf & P2 & P3). destruct (N f Pf) as [Nl Nc].
    cbn [dir_step]. rewrite Pf.
    constructor; unfold cand, dpc, dwc, dlw; rewrite ?Hsc; cbn [dstep fst snd d_files d_vnew d_vstate d_dnew d_dstate d_pend].
    + rewrite fold_left_app, V. cbn. rewrite Pf. reflexivity.
    + intros f0 Hc. apply candp_snoc in Hc. rewrite V in Hc. cbn in Hc. rewrite Pf in Hc. cbn in Hc.
      destruct Hc as [Hc|Hc].
      * eapply bgood_ext; [apply G; exact Hc|auto|]. unfold dlw. rewrite Hsc, Eds. reflexivity.
      * inv Hc. left. exists st, wc. splits; auto.
        -- apply E.nth_snoc_old. exact P3.
        -- unfold dlw. rewrite Hsc. cbn. exact F3.
    + discriminate.
    + split; [reflexivity|]. exists f, st. splits; auto. apply E.nth_snoc_old. exact P3.
  - (* dirsync *)
    cbn in Hok. subst pc. destruct P as (P0 & f & st & Pf & P2 & P3).
    constructor; unfold cand, dpc, dwc, dlw; rewrite ?Hsc; cbn [dir_step dstep fst snd d_files d_vnew d_vstate d_dnew d_dstate d_pend].
    + reflexivity.
    + intros f0 [k Hk]. rewrite firstn_nil in Hk. cbn in Hk. rewrite Pf in Hk. inv Hk.
      left. exists st, wc. splits; auto.
      * apply E.nth_snoc_old. exact P3.
      * unfold dlw. rewrite Hsc. cbn. intros lw0 H0. inv H0. lia.
    + rewrite P0. discriminate.
    + exact Logic.I.
Qed.

Lemma DI_init st0 new0 : DI st0 [] (dir_init st0 new0).
Proof.
  constructor.
  - destruct st0, new0; reflexivity.
  - intros f [k Hk]. right. destruct st0 as [s|], new0 as [c'|]; cbn in Hk; rewrite firstn_nil in Hk; cbn in Hk;
      try discriminate; inv Hk; exists s; repeat split.
  - intros f Hf. split.
    + destruct st0 as [s|], new0 as [c'|]; cbn in Hf; try discriminate; inv Hf; cbn; lia.
    + intros [k Hk]. destruct st0 as [s|], new0 as [c'|]; cbn in Hf, Hk; rewrite firstn_nil in Hk; cbn in Hk;
        try discriminate; inv Hf; inv Hk.
  - exact Logic.I.
Qed.

Lemma DI_run st0 new0 L : shaped L -> DI st0 L (dir_run (dir_init st0 new0) L).
Proof.
  induction L as [|e L IH] using rev_ind; intros H; [apply DI_init|].
  apply shaped_snoc in H. destruct H as [H1 H2]. rewrite E.dir_run_snoc. apply DI_step; auto.
Qed.

(** whatever part of the pending name-space operations took effect and whatever the loss choice
    for unsynced file contents: the surviving state file is the state file the life started
    with, or the payload of a state write of the prefix (at or after the write of the last
    attempt whose directory fsync completed) *)
Theorem dir_survivor_any (base : medium irec) (L : log) ch x : shaped L ->
  m_state (crash_medium base L ch) = Some x ->
  (m_state base = Some x /\ dlw L = None) \/
  exists pos, nth_error L pos = Some (IoWriteNew x) /\ forall lw, dlw L = Some lw -> lw <= pos.
Proof.
  intros Hs. pose proof (DI_run (m_state base) (m_new base) L Hs) as D. unfold crash_medium.
  set (d := dir_run (dir_init (m_state base) (m_new base)) L) in *. unfold dir_crash.
  destruct (snd (fold_left ns_apply (firstn (c_dirk ch) (d_pend d)) (d_dnew d, d_dstate d))) as [f|] eqn:Ef;
    cbn [m_state]; [|discriminate].
  intros H. inv H.
  destruct (di_good _ _ _ D f) as [(st & pos & G1 & G2 & G3)|(s & E1 & E2 & E3 & E4)]; [exists (c_dirk ch); exact Ef| |].
  - right. exists pos. unfold file_content. rewrite G1. auto.
  - left. subst f. unfold file_content. rewrite E3. auto.
Qed.

Theorem dir_survivor (L : log) ch x : shaped L ->
  m_state (crash_medium medium_empty L ch) = Some x ->
  exists pos, nth_error L pos = Some (IoWriteNew x) /\ forall lw, dlw L = Some lw -> lw <= pos.
Proof.
  intros Hs H. destruct (dir_survivor_any medium_empty L ch x Hs H) as [[H0 _]|H1]; [discriminate|exact H1].
Qed.

Lemma dlw_snoc L e w : dlw L = Some w -> exists w', dlw (L ++ [e]) = Some w' /\ w <= w'.
Proof.
  intros H. pose proof (dscan_facts L) as (_ & _ & F3). specialize (F3 _ H).
  unfold dlw, dwc in *. rewrite dscan_snoc. destruct (dscan L) as [[[pos pc] wc] lw]. cbn in *. subst lw.
  destruct e; cbn; eauto.
Qed.

Lemma dlw_app L L' : forall w, dlw L = Some w -> exists w', dlw (L ++ L') = Some w' /\ w <= w'.
Proof.
  induction L' as [|e L' IH] using rev_ind; intros w H.
  - rewrite app_nil_r. eauto.
  - destruct (IH _ H) as (w1 & H1 & Hle). rewrite app_assoc.
    destruct (dlw_snoc _ e _ H1) as (w2 & H2 & Hle2). exists w2. split; [exact H2|lia].
Qed.

Lemma dlw_firstn L q n w : q <= n -> dlw (firstn q L) = Some w -> exists w', dlw (firstn n L) = Some w' /\ w <= w'.
Proof.
  intros Hle H. destruct (E.firstn_prefix L q n Hle) as [L' EL]. rewrite EL. apply dlw_app. exact H.
Qed.

Lemma shaped_scan L : shaped L ->
  (3 <= dpc L -> exists st, nth_error L (dwc L) = Some (IoWriteNew st)) /\
  (forall w, dlw L = Some w -> exists st, nth_error L w = Some (IoWriteNew st)).
Proof.
  induction L as [|e L IH] using rev_ind; intros H.
  - cbn. split; [lia|discriminate].
  - apply shaped_snoc in H. destruct H as [H1 H2]. destruct (IH H1) as [I1 I2].
    pose proof (dscan_facts L) as (F1 & _ & _).
    unfold dpc, dwc, dlw in *. rewrite dscan_snoc. destruct (dscan L) as [[[pos pc] wc] lw]. cbn [fst snd] in *. subst pos.
    assert (Hold : forall q st, nth_error L q = Some (IoWriteNew st) -> nth_error (L ++ [e]) q = Some (IoWriteNew st))
      by (intros; apply E.nth_snoc_old; assumption).
    destruct e; cbn [dstep fst snd]; cbn in H2;
      try (split; [intros Hp; destruct (I1 Hp) as [st Hst]; eauto|intros w Hw; destruct (I2 w Hw) as [st Hst]; eauto]).
    + split; [lia|]. intros w Hw; destruct (I2 w Hw) as [st Hst]; eauto.
    + split; [lia|]. intros w Hw; destruct (I2 w Hw) as [st Hst]; eauto.
    + split; [intros _; exists st; apply E.nth_snoc_new|]. intros w Hw; destruct (I2 w Hw) as [st' Hst]; eauto.
    + subst pc. destruct (I1 ltac:(lia)) as [st Hst]. split; [eauto|]. intros w Hw; destruct (I2 w Hw) as [st' Hst']; eauto.
    + subst pc. destruct (I1 ltac:(lia)) as [st Hst]. split; [eauto|]. intros w Hw; destruct (I2 w Hw) as [st' Hst']; eauto.
    + subst pc. destruct (I1 ltac:(lia)) as [st Hst]. split; [eauto|]. intros w Hw. inv Hw. eauto.
Qed.

(** state [st] is the list's window starting at absolute index [kst] *)
Definition st_at (sd : list N) (el : list nat) (lc : list loc) (kst : nat) (st : pstate) : Prop :=
  forall q b, nth_error (snd st) q = Some b ->
    nth_error lc (kst + q) = Some (bs_loc b) /\
    forall s0, In s0 (bs_seeds b) -> exists j, nth_error sd j = Some s0 /\ nth_error el j = Some (kst + q).

(** window start of the last state write whose directory fsync is in [L] *)
Definition kd (K : nat -> nat) (L : log) : nat := match dlw L with Some w => K w | None => 0 end.

(** [K p]: the window start of the state written at log position [p].
    - the log is a sequence of attempts, each a prefix of remove/create/write/fsync/rename/dirsync;
    - window starts are non-decreasing along the log and describe the payloads;
    - when data is written into block [a'], every earlier block [a] on the same region is
      below the window start of the last durably completed state write. *)
Record reuse_witness (c : cst) (K : nat -> nat) : Prop := mkRW {
  w_shape : shaped (cs_log c);
  w_mono : forall p1 p2 st1 st2, p1 <= p2 -> nth_error (cs_log c) p1 = Some (IoWriteNew st1) ->
     nth_error (cs_log c) p2 = Some (IoWriteNew st2) -> K p1 <= K p2;
  w_st : forall p st h, nth_error (cs_log c) p = Some (IoWriteNew (st, h)) ->
     st_at (cs_seeds c) (cs_elast c) (cs_locs c) (K p) st;
  w_data : forall p' k' l lo hi u' a, nth_error (cs_log c) p' = Some (IoData k' l lo hi) ->
     nth_error (cs_ups c) k' = Some u' -> a < up_abs u' -> nth_error (cs_locs c) a = Some l ->
     a < kd K (firstn p' (cs_log c))
}.

Lemma resolve_location_k sd el ab lc r oldest bl alloc i kst :
  NoDup sd -> A.rec_ok sd el ab r -> st_at sd el lc kst (oldest, bl) ->
  resolve_ref (fst (pbl_new alloc oldest bl)) 0 (r_epoch r) (r_bfl r) (r_seed r) = Some i ->
  exists a, nth_error ab (r_up r) = Some a /\ kst <= a.
Proof.
  intros Hnd (j & e0 & a & R1 & R2 & R3 & R4) Hst Hres.
  destruct (A.resolve_restored _ _ _ _ _ _ _ Hres) as (q & b & Q2 & Q3 & E3 & E4 & _).
  destruct (Hst q b Q2) as [L1 L2]. destruct (L2 _ Q3) as (j' & S1 & S2).
  assert (j = j') by (eapply A.NoDup_nth_eq; [exact Hnd|exact R1|exact S1]). subst j'.
  rewrite R2 in S2. injection S2 as He0. subst e0.
  exists a. split; [exact R3|lia].
Qed.

Lemma resolve_none_fails alloc e bfl rs i :
  resolve_ref (fst (pbl_new alloc 1 [])) 0 e bfl rs = Some i -> False.
Proof. intros H. apply E.resolve_ref_seed in H. cbn in H. exact H. Qed.

Lemma witness_later c K n q st a : reuse_witness c K ->
  (forall lw, dlw (firstn n (cs_log c)) = Some lw -> lw <= q) ->
  nth_error (cs_log c) q = Some (IoWriteNew st) -> K q <= a ->
  forall p' k' l lo hi u', p' < n -> nth_error (cs_log c) p' = Some (IoData k' l lo hi) ->
    nth_error (cs_ups c) k' = Some u' -> a < up_abs u' -> nth_error (cs_locs c) a = Some l -> False.
Proof.
  intros [W1 W2 W3 W4] Hlw Hq HK p' k' l lo hi u' Hpn Hp' Hu' Hlt Hloc.
  pose proof (W4 _ _ _ _ _ _ _ Hp' Hu' Hlt Hloc) as Hkd. unfold kd in Hkd.
  destruct (dlw (firstn p' (cs_log c))) as [w|] eqn:Ew; [|lia].
  destruct (dlw_firstn (cs_log c) p' n w ltac:(lia) Ew) as (w' & Ew' & Hww).
  specialize (Hlw _ Ew').
  destruct (proj2 (shaped_scan _ (shaped_firstn _ p' W1)) _ Ew) as [stw Hstw].
  apply E.nth_firstn in Hstw. destruct Hstw as [_ Hstw].
  destruct (proj2 (shaped_scan _ (shaped_firstn _ n W1)) _ Ew') as [stw' Hstw'].
  apply E.nth_firstn in Hstw'. destruct Hstw' as [_ Hstw'].
  pose proof (W2 _ _ _ _ Hww Hstw Hstw') as HK1.
  pose proof (W2 _ _ _ _ Hlw Hstw' Hq) as HK2. lia.
Qed.

Theorem witness_no_later_reuse g cfg t0 c K : length (g_locs g) < 65536 ->
  creach g cfg medium_empty t0 c -> reuse_witness c K ->
  forall n ch slot r i, resolves g (crash_of medium_empty c n ch) slot r i -> no_later_reuse c n (r_up r).
Proof.
  intros Hg R W n ch slot r i [Hslot Hres] up p' k' l' lo' hi' u' Hup Hpn Hp' Hu' Hlt Hloc.
  pose proof (A.creach_cinv _ _ _ _ Hg R) as [I1 I2 I3 I4 I5 I6 I7 I8 I9].
  unfold crash_of in *. set (L := firstn n (cs_log c)) in *.
  assert (HsL : shaped L) by (apply shaped_firstn; exact (w_shape _ _ W)).
  (* the record *)
  destruct (A.crash_index_in _ _ _ _ Hslot) as [s' Hin].
  assert (Hrec : A.rec_ok (cs_seeds c) (cs_elast c) (A.abss c) r).
  { rewrite Forall_forall in I6. apply (I6 (IoIndex s' r)). eapply A.in_firstn; eauto. }
  (* the surviving state file *)
  destruct (m_state (crash_medium medium_empty L ch)) as [[[oldest bl] h]|] eqn:Em.
  2:{ unfold restart in Hres. eapply (resolve_none_fails (fun l _ => geom g l)); exact Hres. }
  destruct (dir_survivor L ch _ HsL Em) as (pos & Hpos & Hlw).
  apply E.nth_firstn in Hpos. destruct Hpos as [_ Hpos].
  unfold restart in Hres.
  destruct (resolve_location_k _ _ (A.abss c) _ r oldest bl (fun l _ => geom g l) i _ (A.gi_nodup _ _ _ I1) Hrec
              (w_st _ _ W _ _ _ Hpos) Hres) as (a & Ha & Hka).
  unfold A.abss in Ha. rewrite nth_error_map, Hup in Ha. cbn in Ha. inv Ha.
  exact (witness_later c K n pos _ (up_abs up) W Hlw Hpos Hka _ _ _ _ _ _ Hpn Hp' Hu' Hlt Hloc).
Qed.

(** the final statement, relative to a witness for (4) *)
Theorem crash_safe_bytes_from_witness : forall g cfg t0 c, length (g_locs g) < 65536 -> NoDup (g_locs g) ->
  creach g cfg medium_empty t0 c -> (exists K, reuse_witness c K) ->
  forall n ch slot r i, resolves g (crash_of medium_empty c n ch) slot r i ->
  exists up l, nth_error (cs_ups c) (r_up r) = Some up /\
    block_loc (fst (restart (geom g) (m_state (crash_of medium_empty c n ch)))) i = Some l /\
    nth_error (cs_locs c) (up_abs up) = Some l /\
    forall z, (r_off r <= z < r_off r + r_size r)%Z ->
      byte_owner (m_data (crash_of medium_empty c n ch)) l z None = Some (r_up r).
Proof.
  intros g cfg t0 c Hg Hnd R [K W] n ch slot r i Hres.
  eapply crash_safe_bytes_partial; eauto. eapply witness_no_later_reuse; eauto.
Qed.

Definition nodir (e : io irec) : Prop :=
  match e with
  | IoRemoveNew | IoCreateNew | IoWriteNew _ | IoFsyncNew | IoRenameNew | IoDirSync => False
  | _ => True
  end.

Lemma shaped_app_nodir L extra : shaped L -> Forall nodir extra ->
  shaped (L ++ extra) /\ dpc (L ++ extra) = dpc L.
Proof.
  induction extra as [|e extra IH] using rev_ind; intros H F.
  - rewrite app_nil_r. auto.
  - apply Forall_app in F. destruct F as [F1 F2]. inv F2. destruct (IH H F1) as [I1 I2].
    rewrite app_assoc. split.
    + apply shaped_snoc_intro; [exact I1|]. destruct e; cbn in *; tauto.
    + rewrite <- I2. unfold dpc. rewrite dscan_snoc. destruct (dscan (L ++ extra)) as [[[pos pc] wc] lw].
      destruct e; cbn in *; tauto.
Qed.

Lemma writing_pcs s s' : s_r s' = s_r s -> s_p s' = s_p s -> writing s' = writing s.
Proof. unfold writing. intros -> ->. reflexivity. Qed.

Definition written (s : sys) : bool :=
  match s_r s with
  | RW WWritten => true
  | _ => match s_p s with PW _ WWritten => true | _ => false end
  end.
Definition holding (s : sys) : Prop := writing s <> None \/ written s = true.

Lemma written_pcs s s' : s_r s' = s_r s -> s_p s' = s_p s -> written s' = written s.
Proof. unfold written. intros -> ->. reflexivity. Qed.

Definition r_writing (r : rpc) : option pstate := match r with RW (WWriting st) => Some st | _ => None end.
Definition p_writing (pp : ppc) : option pstate := match pp with PW _ (WWriting st) => Some st | _ => None end.
Definition r_written (r : rpc) : bool := match r with RW WWritten => true | _ => false end.
Definition p_written (pp : ppc) : bool := match pp with PW _ WWritten => true | _ => false end.

Lemma writing_eq s : writing s = match r_writing (s_r s) with Some st => Some st | None => p_writing (s_p s) end.
Proof. unfold writing. destruct (s_r s) as [| |[]]; reflexivity. Qed.

Lemma written_eq s : written s = r_written (s_r s) || p_written (s_p s).
Proof. unfold written. destruct (s_r s) as [| |[]]; reflexivity. Qed.

Lemma p_idle s : inv3 s -> r_holds s = true -> p_writing (s_p s) = None /\ p_written (s_p s) = false.
Proof.
  intros [_ I] Hr. rewrite Hr in I. unfold p_holds in I.
  destruct (s_p s) as [| | | | | | | |? []|]; cbn in I |- *; try discriminate; auto.
Qed.

Lemma r_idle s : inv3 s -> p_holds s = true -> r_writing (s_r s) = None /\ r_written (s_r s) = false.
Proof.
  intros [_ I] Hp. rewrite Hp, andb_true_r in I. unfold r_holds in I.
  destruct (s_r s) as [| |[]]; cbn in I |- *; try discriminate; auto.
Qed.

Lemma thread_cases cfg s t a s' : inv3 s -> step cfg s (EStep t a) = Some (Ok s') ->
  (writing s' = writing s /\ written s' = written s /\ toRelease (s_pbl s') = toRelease (s_pbl s) /\
   releasing (s_pbl s') = releasing (s_pbl s) /\ thread_at_getstate s t = false)
  \/ (thread_at_getstate s t = true /\ writing s = None /\ written s = false /\
      exists p' st, get_persistent_state (s_pbl s) = Ok (p', st) /\ s_pbl s' = p' /\
                    writing s' = Some st /\ written s' = false)
  \/ (thread_writing s t = true /\ a_ok a = true /\ thread_at_getstate s t = false /\
      (exists st, writing s = Some st) /\ writing s' = None /\ written s' = true /\ s_pbl s' = s_pbl s)
  \/ (thread_at_getstate s t = false /\ writing s' = None /\ written s' = false /\ s_pbl s' = s_pbl s)
  \/ (written s = true /\ writing s = None /\ thread_at_getstate s t = false /\
      notify_state_written (s_pbl s) = Ok (s_pbl s') /\ writing s' = None /\ written s' = false).
Proof.
  intros I3 H. rewrite !writing_eq, !written_eq. unfold thread_at_getstate, thread_writing.
  destruct t; cbn [step] in H.
  - (* while this thread holds the store lock, inv3 puts the other one outside the write *)
    unfold rstep in H. pose proof (p_idle s I3) as Hidle. unfold r_holds in Hidle.
    destruct (s_r s) as [|ch|w].
    + injection H as <-. left. cbn. auto.
    + destruct (is_closed _ _); [|discriminate]. injection H as <-. left. cbn. auto.
    + unfold wstep in H. destruct w; cbn [holds] in Hidle.
      * destruct (s_store s); [discriminate|]. injection H as <-. left. cbn. auto.
      * destruct (Hidle eq_refl) as [Hw Hn].
        destruct (get_persistent_state (s_pbl s)) as [[p' st]|] eqn:Eg; [|discriminate]. injection H as <-.
        right; left. cbn. rewrite Hw, Hn. splits; auto. exists p', st. auto.
      * destruct (Hidle eq_refl) as [Hw Hn]. destruct (a_ok a); injection H as <-.
        -- right; right; left. cbn. rewrite Hw. splits; eauto.
        -- right; right; right; left. cbn. rewrite Hw, Hn. splits; auto.
      * destruct (Hidle eq_refl) as [Hw Hn].
        destruct (notify_state_written (s_pbl s)) as [p'|]; [|discriminate]. injection H as <-.
        right; right; right; right. cbn. rewrite Hw, Hn. splits; auto.
      * destruct (_ <=? _)%N; [|discriminate]. injection H as <-. left. cbn. auto.
  - unfold pstep in H. pose proof (r_idle s I3) as Hidle. unfold p_holds in Hidle.
    destruct (s_p s) as [|ch|ch|dl|keep|keep final|keep final|keep final dl|keep w|].
    + injection H as <-. left. cbn. auto.
    + destruct (is_closed _ _); injection H as <-; left; cbn; auto.
    + cbv zeta in H. destruct (_ && _)%bool; [|destruct (is_closed _ _); [|discriminate]];
        injection H as <-; left; cbn; auto.
    + cbv zeta in H. destruct (s_cancel s && _)%bool; [|destruct (_ && _)%bool; [|discriminate]];
        injection H as <-; left; cbn; auto.
    + injection H as <-. left. cbn. auto.
    + destruct (a_ok a); injection H as <-; left; cbn; auto.
    + cbv zeta in H. destruct (negb keep && negb final); injection H as <-; left; cbn; splits; auto;
        unfold notify_sync_completed;
        match goal with |- context [if ?b then nc_block _ _ else _] => destruct b end;
        try (destruct (nc_block _ _)); reflexivity.
    + destruct (_ <=? _)%N; [|discriminate]. injection H as <-. left. cbn. auto.
    + unfold wstep in H. destruct w; cbn [holds] in Hidle.
      * destruct (s_store s); [discriminate|]. injection H as <-. left. cbn. auto.
      * destruct (Hidle eq_refl) as [Hw Hn].
        destruct (get_persistent_state (s_pbl s)) as [[p' st]|] eqn:Eg; [|discriminate]. injection H as <-.
        right; left. cbn. rewrite Hw, Hn. splits; auto. exists p', st. auto.
      * destruct (Hidle eq_refl) as [Hw Hn]. destruct (a_ok a); injection H as <-.
        -- right; right; left. cbn. rewrite Hw, Hn. splits; eauto.
        -- right; right; right; left. cbn. rewrite Hw, Hn. splits; auto.
      * destruct (Hidle eq_refl) as [Hw Hn].
        destruct (notify_state_written (s_pbl s)) as [p'|]; [|discriminate]. injection H as <-.
        right; right; right; right. destruct keep; cbn; rewrite Hw, Hn; splits; auto.
      * destruct (_ <=? _)%N; [|discriminate]. injection H as <-. left. cbn. auto.
    + discriminate.
Qed.

Lemma writing_step cfg s t a s' : inv3 s -> step cfg s (EStep t a) = Some (Ok s') ->
  thread_at_getstate s t = false -> forall st, writing s' = Some st -> writing s = Some st.
Proof.
  intros I3 H G st W.
  destruct (thread_cases _ _ _ _ _ I3 H) as
    [(E & _)|[(G' & _)|[(_ & _ & _ & _ & E & _)|[(_ & E & _)|(_ & _ & _ & _ & E & _)]]]]; congruence.
Qed.

Definition shinv (c : cst) : Prop :=
  shaped (cs_log c) /\
  forall st, writing (cs_sys c) = Some st -> cs_dirpc c = 0 \/ cs_dirpc c = dpc (cs_log c).

Lemma shinv_step g cfg c e c' : inv3 (cs_sys c) -> shinv c -> cstep g cfg c e = Some c' -> shinv c'.
Proof.
  intros I3 [S1 S2] H. apply cstep_eff in H.
  assert (Hframe : forall extra, cs_log c' = cs_log c ++ extra -> Forall nodir extra ->
            (forall st, writing (cs_sys c') = Some st -> writing (cs_sys c) = Some st) ->
            cs_dirpc c' = cs_dirpc c -> shinv c').
  { intros extra E1 F E2 E3. destruct (shaped_app_nodir _ _ S1 F) as [A1 A2].
    split; rewrite E1; [exact A1|]. intros st W. rewrite E3, A2. eauto. }
  assert (Hpcs : same_pcs c c' -> cs_log c' = cs_log c -> cs_dirpc c' = cs_dirpc c -> shinv c').
  { intros [P1 P2] E4 E9. apply (Hframe []); auto.
    - rewrite E4, app_nil_r; reflexivity.
    - intros st. rewrite (writing_pcs _ _ P1 P2). auto. }
  eff_cases H.
  - apply obs_fields in Hobs. destruct Hobs as (_ & E2 & E3 & E4 & _ & _ & _ & _ & E9 & _). apply Hpcs; [split| |]; assumption.
  - auto.
  - auto.
  - auto.
  - apply (Hframe [IoData k l (up_off u + up_issued u) (up_off u + up_issued u + n)%Z]); auto.
    + constructor; [exact Logic.I|constructor].
    + rewrite Hsys. auto.
  - apply (Hframe []); auto. + rewrite Hlg, app_nil_r; reflexivity. + rewrite Hsys. auto.
  - destruct Hpc as [P1 P2]. apply (Hframe extra); auto.
    + eapply Forall_impl; [|exact Hex]. intros [] Hx; cbn in *; tauto.
    + intros st. rewrite (writing_pcs _ _ P1 P2). auto.
  - destruct (shaped_app_nodir _ extra S1) as [A1 A2].
    { eapply Forall_impl; [|exact Hex]. intros [] Hx; cbn in *; tauto. }
    split; rewrite Hlg; [exact A1|]. intros st W. rewrite Hd, A2.
    destruct (thread_at_getstate (cs_sys c) t) eqn:Eg; [auto|].
    rewrite Hsys in W. eapply S2. eapply writing_step; eauto.
  - split.
    + rewrite Hlg. apply shaped_snoc_intro; [exact S1|].
      destruct (S2 _ Hw) as [E0|E0]; [rewrite E0; exact Logic.I|].
      unfold dir_ops_total in Hlt. rewrite <- E0.
      destruct (cs_dirpc c) as [|[|[|[|[|[|?]]]]]]; cbn; auto; lia.
    + intros st' _. right. rewrite Hd, Hlg. unfold dpc. rewrite dscan_snoc.
      destruct (dscan (cs_log c)) as [[[pos pc] wc] lw]. unfold dir_ops_total in Hlt.
      destruct (cs_dirpc c) as [|[|[|[|[|[|?]]]]]]; cbn; auto; lia.
Qed.

Theorem creach_shaped g cfg base t0 c : creach g cfg base t0 c -> shinv c.
Proof.
  apply creach_ind.
  - split; [intros q e H; cbn in H; destruct q; discriminate|]. cbn. discriminate.
  - intros c0 e c' R P Hs. eapply shinv_step; eauto. apply (creach_sysinv _ _ _ _ _ R).
Qed.

(** every state file that can survive a crash of a reachable state is the payload of a state
    write at or after the write of the last attempt whose directory fsync is in the prefix *)
Theorem crash_state_survivor g cfg t0 c n ch x : creach g cfg medium_empty t0 c ->
  m_state (crash_of medium_empty c n ch) = Some x ->
  exists pos, pos < n /\ nth_error (cs_log c) pos = Some (IoWriteNew x) /\
    forall lw, dlw (firstn n (cs_log c)) = Some lw -> lw <= pos.
Proof.
  intros R H. destruct (creach_shaped _ _ _ _ _ R) as [S _].
  destruct (dir_survivor _ ch x (shaped_firstn _ n S) H) as (pos & P1 & P2).
  apply E.nth_firstn in P1. destruct P1 as [P0 P1]. eauto.
Qed.

(** the final statement with exactly the three facts of (4) that are NOT proved in this file
    as hypotheses (the shape of the log is [creach_shaped]) *)
Theorem crash_safe_bytes_partial4 : forall g cfg t0 c, length (g_locs g) < 65536 -> NoDup (g_locs g) ->
  creach g cfg medium_empty t0 c ->
  (exists K : nat -> nat,
     (forall p1 p2 st1 st2, p1 <= p2 -> nth_error (cs_log c) p1 = Some (IoWriteNew st1) ->
        nth_error (cs_log c) p2 = Some (IoWriteNew st2) -> K p1 <= K p2) /\
     (forall p st h, nth_error (cs_log c) p = Some (IoWriteNew (st, h)) ->
        st_at (cs_seeds c) (cs_elast c) (cs_locs c) (K p) st) /\
     (forall p' k' l lo hi u' a, nth_error (cs_log c) p' = Some (IoData k' l lo hi) ->
        nth_error (cs_ups c) k' = Some u' -> a < up_abs u' -> nth_error (cs_locs c) a = Some l ->
        a < kd K (firstn p' (cs_log c)))) ->
  forall n ch slot r i, resolves g (crash_of medium_empty c n ch) slot r i ->
  exists up l, nth_error (cs_ups c) (r_up r) = Some up /\
    block_loc (fst (restart (geom g) (m_state (crash_of medium_empty c n ch)))) i = Some l /\
    nth_error (cs_locs c) (up_abs up) = Some l /\
    forall z, (r_off r <= z < r_off r + r_size r)%Z ->
      byte_owner (m_data (crash_of medium_empty c n ch)) l z None = Some (r_up r).
Proof.
  intros g cfg t0 c Hg Hnd R [K (M & S & D)]. eapply crash_safe_bytes_from_witness; eauto.
  exists K. constructor; auto. apply (creach_shaped _ _ _ _ _ R).
Qed.

Definition noWS (e : io irec) : Prop := match e with IoWriteNew _ | IoDirSync => False | _ => True end.

Lemma scan_noWS L extra : Forall noWS extra -> dlw (L ++ extra) = dlw L /\ dwc (L ++ extra) = dwc L.
Proof.
  induction extra as [|e extra IH] using rev_ind; intros F.
  - rewrite app_nil_r. auto.
  - apply Forall_app in F. destruct F as [F1 F2]. inv F2. destruct (IH F1) as [I1 I2].
    rewrite app_assoc. rewrite <- I1, <- I2. unfold dlw, dwc. rewrite dscan_snoc.
    destruct (dscan (L ++ extra)) as [[[pos pc] wc] lw]. destruct e; cbn in *; tauto.
Qed.

Lemma nth_app_noW (L extra : log) q st : Forall noWS extra ->
  nth_error (L ++ extra) q = Some (IoWriteNew st) -> nth_error L q = Some (IoWriteNew st).
Proof.
  intros Hn H. destruct (Nat.lt_ge_cases q (length L)) as [Hl|Hl].
  - rewrite nth_error_app1 in H by exact Hl. exact H.
  - rewrite nth_error_app2 in H by exact Hl. apply nth_error_In in H.
    rewrite Forall_forall in Hn. destruct (Hn _ H).
Qed.

Lemma dlw_lt L : forall w, dlw L = Some w -> w < length L.
Proof.
  induction L as [|e L IH] using rev_ind; intros w H; [discriminate|].
  pose proof (dscan_facts L) as (F1 & F2 & _).
  unfold dlw, dwc in *. rewrite dscan_snoc in H. rewrite app_length. cbn [length].
  destruct (dscan L) as [[[pos pc] wc] lw]. cbn [fst snd] in *.
  destruct e; cbn in H; try (specialize (IH _ H); lia). inv H. lia.
Qed.

Lemma dpc6 L : dpc L = 6 -> dlw L = Some (dwc L).
Proof.
  induction L as [|e L IH] using rev_ind; intros H; [discriminate|].
  unfold dpc, dlw, dwc in *. rewrite dscan_snoc in *.
  destruct (dscan L) as [[[pos pc] wc] lw]. cbn [fst snd] in *.
  destruct e; cbn in *; try discriminate; auto.
Qed.

Lemma kd_agree K K' m (L0 : log) : (forall q, q < m -> K' q = K q) -> length L0 <= m -> kd K' L0 = kd K L0.
Proof.
  intros H Hl. unfold kd. destruct (dlw L0) as [w|] eqn:E; [|reflexivity]. apply H. apply dlw_lt in E. lia.
Qed.

Lemma st_at_mono sd el lc sd' el' lc' k st :
  st_at sd el lc k st -> st_at (sd ++ sd') (el ++ el') (lc ++ lc') k st.
Proof.
  intros H q b Hq. destruct (H q b Hq) as [H1 H2]. split; [apply A.nth_error_app_some; exact H1|].
  intros s0 Hs. destruct (H2 s0 Hs) as [j [J1 J2]]. exists j. split; apply A.nth_error_app_some; assumption.
Qed.

Lemma gps_st_at p sd el lc p1 st :
  A.ginv p sd el -> map b_loc (blocks p) = skipn (totalReleased p) lc ->
  get_persistent_state p = Ok (p1, st) -> st_at sd el lc (totalReleased p) st.
Proof. intros G Hl Hg. exact (A.gps_window _ _ _ _ _ _ G Hl Hg). Qed.

Lemma gps_fields p p' st : get_persistent_state p = Ok (p', st) ->
  toRelease p' = toRelease p /\ releasing p' = length (toRelease p) /\ totalReleased p' = totalReleased p.
Proof.
  unfold get_persistent_state. destruct (gps_loop _ _ _ _); [|discriminate]. cbn. intros H; inv H. cbn. auto.
Qed.

Lemma nsw_fields p p' : notify_state_written p = Ok p' ->
  toRelease p' = skipn (releasing p) (toRelease p) /\ releasing p <= length (toRelease p) /\
  totalReleased p' = totalReleased p.
Proof.
  unfold notify_state_written. destruct (Nat.ltb_spec (length (toRelease p)) (releasing p)); [discriminate|].
  destruct (skipn (releasing p) (toRelease p)) as [|x rest] eqn:E;
    [destruct (nc_block _ _) as [rw h1]|]; intros H0; inv H0; cbn; auto.
Qed.

Lemma put_finalize_rel tok blk size seed p p' fr : put_finalize tok blk size seed p = Ok (p', fr) ->
  toRelease p' = toRelease p /\ releasing p' = releasing p /\ totalReleased p' = totalReleased p.
Proof.
  intros H. destruct (A.put_finalize_spec _ _ _ _ _ _ _ H) as [-> _|abs off _ _ _ _ Q1 Q2 _ _ _ _ Q3]; auto.
Qed.

Definition in_ok (g : geo) (K : nat -> nat) (kin : nat) (c : cst) : Prop :=
  forall st, writing (cs_sys c) = Some st ->
    st_at (cs_seeds c) (cs_elast c) (cs_locs c) kin st /\ kin <= totalReleased (s_pbl (cs_sys c)) /\
    (forall q st', nth_error (cs_log c) q = Some (IoWriteNew st') -> K q <= kin) /\
    (3 <= cs_dirpc c -> nth_error (cs_log c) (dwc (cs_log c)) = Some (IoWriteNew (st, g_hinit g)) /\
                        K (dwc (cs_log c)) = kin).
Definition rel_ok (kin : nat) (c : cst) : Prop :=
  holding (cs_sys c) -> forall i l a, i < releasing (s_pbl (cs_sys c)) ->
    nth_error (toRelease (s_pbl (cs_sys c))) i = Some l -> nth_error (cs_locs c) a = Some l -> a < kin.
Definition wr_ok (K : nat -> nat) (kin : nat) (c : cst) : Prop :=
  written (cs_sys c) = true -> exists w, dlw (cs_log c) = Some w /\ K w = kin.

Record kinv (g : geo) (K : nat -> nat) (kin : nat) (c : cst) : Prop := mkKinv {
  k_mono : forall p1 p2 st1 st2, p1 <= p2 -> nth_error (cs_log c) p1 = Some (IoWriteNew st1) ->
     nth_error (cs_log c) p2 = Some (IoWriteNew st2) -> K p1 <= K p2;
  k_bound : forall q st, nth_error (cs_log c) q = Some (IoWriteNew st) -> K q <= totalReleased (s_pbl (cs_sys c));
  k_st : forall q st h, nth_error (cs_log c) q = Some (IoWriteNew (st, h)) ->
     st_at (cs_seeds c) (cs_elast c) (cs_locs c) (K q) st;
  k_in : in_ok g K kin c;
  k_rel : rel_ok kin c;
  k_wr : wr_ok K kin c;
  k_free : forall l a, In l (cs_free c ++ cs_held c) -> nth_error (cs_locs c) a = Some l -> a < kd K (cs_log c);
  k_dup : forall a a' l, a < a' -> nth_error (cs_locs c) a = Some l -> nth_error (cs_locs c) a' = Some l ->
     a < kd K (cs_log c);
  k_data : forall p' k' l lo hi u' a, nth_error (cs_log c) p' = Some (IoData k' l lo hi) ->
     nth_error (cs_ups c) k' = Some u' -> a < up_abs u' -> nth_error (cs_locs c) a = Some l ->
     a < kd K (firstn p' (cs_log c))
}.

Lemma kinv_frame g K kin kin' c c' extra sd' el' :
  kinv g K kin c -> wf_ups c ->
  cs_log c' = cs_log c ++ extra -> Forall noWS extra ->
  totalReleased (s_pbl (cs_sys c)) <= totalReleased (s_pbl (cs_sys c')) ->
  cs_locs c' = cs_locs c -> cs_seeds c' = cs_seeds c ++ sd' -> cs_elast c' = cs_elast c ++ el' ->
  (forall l, In l (cs_free c' ++ cs_held c') -> In l (cs_free c ++ cs_held c) \/
     (forall a, nth_error (cs_locs c) a = Some l -> a < kd K (cs_log c))) ->
  (forall k' u', k' < length (cs_ups c) -> nth_error (cs_ups c') k' = Some u' ->
     exists u, nth_error (cs_ups c) k' = Some u /\ up_abs u' = up_abs u) ->
  (forall p' k' l lo hi u' a, length (cs_log c) <= p' -> nth_error (cs_log c') p' = Some (IoData k' l lo hi) ->
     nth_error (cs_ups c') k' = Some u' -> a < up_abs u' -> nth_error (cs_locs c) a = Some l ->
     a < kd K (firstn p' (cs_log c'))) ->
  in_ok g K kin' c' -> rel_ok kin' c' -> wr_ok K kin' c' ->
  kinv g K kin' c'.
Proof.
  intros [M B S I0 R0 W0 F D T] Wf Hlog Hex Htr Hl Hsd Hel Hfree Hups Hnew Hin Hrel Hwr.
  destruct (scan_noWS (cs_log c) extra Hex) as [Elw Ewc].
  assert (HW : forall q st, nth_error (cs_log c') q = Some (IoWriteNew st) -> nth_error (cs_log c) q = Some (IoWriteNew st)).
  { intros q st. rewrite Hlog. apply nth_app_noW. exact Hex. }
  assert (Hkd : kd K (cs_log c') = kd K (cs_log c)) by (unfold kd; rewrite Hlog, Elw; reflexivity).
  constructor; auto.
  - intros p1 p2 st1 st2 Hle H1 H2. eapply M; eauto.
  - intros q st Hq. specialize (B _ _ (HW _ _ Hq)). lia.
  - intros q st h Hq. rewrite Hsd, Hel, Hl. rewrite <- (app_nil_r (cs_locs c)). apply st_at_mono. eapply S; eauto.
  - intros l a Hin0 Ha. rewrite Hkd. rewrite Hl in Ha. destruct (Hfree l Hin0) as [Hf|Hf]; eauto.
  - intros a a' l Hlt H1 H2. rewrite Hkd. rewrite Hl in H1, H2. eauto.
  - intros p' k' l lo hi u' a Hp' Hu' Hlt Ha. rewrite Hl in Ha.
    destruct (Nat.lt_ge_cases p' (length (cs_log c))) as [Hlt'|Hge].
    + rewrite Hlog in Hp' |- *. rewrite nth_error_app1 in Hp' by exact Hlt'.
      rewrite E.firstn_app_le by lia.
      destruct (Wf _ _ _ _ (nth_error_In _ _ Hp')) as (u0 & U0 & _).
      destruct (Hups k' u' ltac:(apply nth_error_Some; congruence) Hu') as (u & U1 & U2).
      rewrite U2 in Hlt. eapply T; eauto.
    + eapply Hnew; eauto.
Qed.

Definition same_phase (s s' : sys) : Prop := writing s' = writing s /\ written s' = written s.
Definition rel_keeps (p p' : pbl) : Prop :=
  totalReleased p <= totalReleased p' /\ releasing p' = releasing p /\
  forall i l, i < releasing p -> nth_error (toRelease p') i = Some l -> nth_error (toRelease p) i = Some l.

Lemma same_phase_pcs s s' : s_r s' = s_r s -> s_p s' = s_p s -> same_phase s s'.
Proof. intros Hr Hp. split; [apply writing_pcs|apply written_pcs]; assumption. Qed.

Lemma rel_keeps_refl p : rel_keeps p p.
Proof. unfold rel_keeps. auto. Qed.

Lemma kinv_quiet g K kin c c' extra sd' el' :
  kinv g K kin c -> wf_ups c ->
  same_phase (cs_sys c) (cs_sys c') -> rel_keeps (s_pbl (cs_sys c)) (s_pbl (cs_sys c')) ->
  cs_log c' = cs_log c ++ extra -> Forall noWS extra ->
  (3 <= cs_dirpc c' -> 3 <= cs_dirpc c) ->
  cs_locs c' = cs_locs c -> cs_seeds c' = cs_seeds c ++ sd' -> cs_elast c' = cs_elast c ++ el' ->
  (forall l, In l (cs_free c' ++ cs_held c') -> In l (cs_free c ++ cs_held c)) ->
  (forall k' u', k' < length (cs_ups c) -> nth_error (cs_ups c') k' = Some u' ->
     exists u, nth_error (cs_ups c) k' = Some u /\ up_abs u' = up_abs u) ->
  (forall p' k' l lo hi u' a, length (cs_log c) <= p' -> nth_error (cs_log c') p' = Some (IoData k' l lo hi) ->
     nth_error (cs_ups c') k' = Some u' -> a < up_abs u' -> nth_error (cs_locs c) a = Some l ->
     a < kd K (firstn p' (cs_log c'))) ->
  kinv g K kin c'.
Proof.
  intros KI Wf [Ew Ewr] (Htr & Hrl & Htl) Hlog Hex Hpc Hl Hsd Hel Hfree Hups Hnew.
  destruct (scan_noWS (cs_log c) extra Hex) as [Elw Ewc].
  eapply kinv_frame; eauto.
  - intros st Hst. rewrite Ew in Hst. destruct (k_in _ _ _ _ KI st Hst) as (I1 & I2 & I3 & I4). splits.
    + rewrite Hsd, Hel, Hl. rewrite <- (app_nil_r (cs_locs c)). apply st_at_mono. exact I1.
    + lia.
    + intros q st' Hq. rewrite Hlog in Hq. apply nth_app_noW in Hq; eauto.
    + intros H3. destruct (I4 (Hpc H3)) as [J1 J2]. rewrite Hlog, Ewc. split; [|exact J2].
      apply A.nth_error_app_some. exact J1.
  - intros Hh i l a Hi Hn Ha. unfold holding in Hh. rewrite Ew, Ewr in Hh. rewrite Hrl in Hi. rewrite Hl in Ha.
    eapply (k_rel _ _ _ _ KI); eauto.
  - intros Hw. rewrite Ewr in Hw. destruct (k_wr _ _ _ _ KI Hw) as (w & W1 & W2). exists w. rewrite Hlog, Elw. auto.
Qed.

Lemma hnew_nodata (L extra : log) p' k l lo hi : Forall nodata extra -> length L <= p' ->
  nth_error (L ++ extra) p' = Some (IoData k l lo hi) -> False.
Proof. intros F Hl H. apply nth_app_nodata in H; [|exact F]. apply E.nth_lt in H. lia. Qed.

Lemma st_at_lc sd el lc lc' k st : st_at sd el lc k st -> st_at sd el (lc ++ lc') k st.
Proof. intros H. pose proof (st_at_mono sd el lc [] [] lc' k st H) as H'. rewrite !app_nil_r in H'. exact H'. Qed.

Lemma in_remove_loc held l x : In x (remove_loc held l) -> In x held.
Proof.
  induction held as [|y t IH]; cbn; [auto|]. destruct (loc_eqb y l); cbn; [auto|]. intros [H|H]; auto.
Qed.

Lemma existsb_loc_in l held : existsb (loc_eqb l) held = true -> In l held.
Proof. intros H. apply existsb_exists in H. destruct H as [x [Hx E0]]. apply loc_eqb_eq in E0. subst. exact Hx. Qed.

Lemma app_self_nil {X} (rel T : list X) : T = rel ++ T -> rel = [].
Proof.
  intros H. apply (f_equal (@length _)) in H. rewrite app_length in H. destruct rel; [reflexivity|cbn in H; lia].
Qed.

Lemma kinv_step g cfg c e c' K kin :
  NoDup (g_locs g) -> kinv g K kin c -> A.cinv g c -> rinv g c -> wf_ups c ->
  inv1 (cs_sys c) -> inv3 (cs_sys c) -> shinv c ->
  cstep g cfg c e = Some c' -> exists K' kin', kinv g K' kin' c'.
Proof.
  intros Hnd KI I RI Wf I1 I3 [Sh1 Sh2] H. apply cstep_eff in H.
  destruct (rinv_window _ _ Hnd RI I) as (Hn & Hwin & Hwnd).
  assert (Hlen : forall extra, cs_log c' = cs_log c ++ extra -> Forall nodata extra ->
            forall p' k' l lo hi u' a, length (cs_log c) <= p' ->
              nth_error (cs_log c') p' = Some (IoData k' l lo hi) ->
              nth_error (cs_ups c') k' = Some u' -> a < up_abs u' -> nth_error (cs_locs c) a = Some l ->
              a < kd K (firstn p' (cs_log c'))).
  { intros extra Hlg Hnd' p' k' l lo hi u' a Hl Hp'. exfalso. rewrite Hlg in Hp'. eapply hnew_nodata; eauto. }
  eff_cases H.
  - (* trivial *)
    apply obs_fields in Hobs. destruct Hobs as (E1 & E2 & E3 & E4 & E5 & E6 & E7 & E8 & E9 & E10 & E11).
    exists K, kin. eapply (kinv_quiet g K kin c c' [] [] [] KI Wf); rewrite ?app_nil_r; auto.
    + apply same_phase_pcs; assumption.
    + rewrite E1. apply rel_keeps_refl.
    + rewrite E9. auto.
    + rewrite E7, E8. auto.
    + rewrite E5. eauto.
    + apply (Hlen []); [rewrite app_nil_r; exact E4|constructor].
  - (* push *)
    pose proof KI as [M B S I0 R0 W0 F D T].
    destruct Hpc as [P1 P2]. destruct Hgh as [G1 G2].
    assert (Ew : writing (cs_sys c') = writing (cs_sys c)) by (apply writing_pcs; auto).
    assert (Ewr : written (cs_sys c') = written (cs_sys c)) by (apply written_pcs; auto).
    assert (Hlin : In l (cs_free c)) by (rewrite Hf; left; reflexivity).
    exists K, kin. constructor.
    + rewrite Hlg. exact M.
    + rewrite Hlg, Hp. exact B.
    + rewrite Hlg, G1, G2, Hlc. intros q st h Hq. apply st_at_lc. eauto.
    + intros st Hst. rewrite Ew in Hst. destruct (I0 st Hst) as (J1 & J2 & J3 & J4).
      rewrite G1, G2, Hlc, Hp, Hlg, Hd. splits; auto. apply st_at_lc. exact J1.
    + intros Hh i l0 a Hi Hn0 Ha. unfold holding in Hh. rewrite Ew, Ewr in Hh. rewrite Hp in Hi, Hn0. cbn in Hi, Hn0.
      rewrite Hlc in Ha. apply A.nth_error_snoc_inv in Ha. destruct Ha as [Ha|[_ ->]]; [eapply R0; eauto|].
      exfalso. unfold regions in Hn. apply E.NoDup_app_r in Hn. eapply (nodup_app_disj _ _ l Hn).
      * eapply nth_error_In; eauto.
      * apply in_app_iff. left. exact Hlin.
    + intros Hw. rewrite Ewr in Hw. rewrite Hlg. auto.
    + intros l0 a Hin Ha. rewrite Hlg. rewrite Hfr, Hhd in Hin. rewrite Hlc in Ha.
      apply A.nth_error_snoc_inv in Ha. destruct Ha as [Ha|[_ ->]].
      * eapply F; eauto. rewrite Hf. right. exact Hin.
      * exfalso. unfold regions in Hn. apply E.NoDup_app_r in Hn. apply E.NoDup_app_r in Hn. rewrite Hf in Hn.
        cbn in Hn. inv Hn. auto.
    + intros a a' l0 Hlt H1 H2. rewrite Hlg. rewrite Hlc in H1, H2.
      apply A.nth_error_snoc_inv in H2. destruct H2 as [H2|[-> ->]].
      * pose proof (E.nth_lt _ _ _ H2). rewrite nth_error_app1 in H1 by lia. eauto.
      * rewrite nth_error_app1 in H1 by lia. eapply F; eauto. apply in_app_iff. left. exact Hlin.
    + intros p' k' l0 lo hi u' a Hp' Hu' Hlt Ha. rewrite Hlg in Hp' |- *. rewrite Hu in Hu'. rewrite Hlc in Ha.
      destruct (Wf _ _ _ _ (nth_error_In _ _ Hp')) as (u0 & U0 & U1). rewrite Hu' in U0. inv U0.
      pose proof (E.nth_lt _ _ _ U1). rewrite nth_error_app1 in Ha by lia. eauto.
  - (* pop *)
    destruct Hpc as [P1 P2]. destruct Hgh as [G1 G2]. destruct Hal as (L1 & L2 & L3).
    destruct (A.pop_front_spec _ _ Hpop) as (b & rest & E1 & E2 & _ & _ & _ & _ & E7 & E8 & Er & _).
    exists K, kin. eapply (kinv_quiet g K kin c c' [] [] [] KI Wf); rewrite ?app_nil_r; auto.
    + apply same_phase_pcs; assumption.
    + rewrite Hp. unfold rel_keeps. splits; [lia|exact Er|].
      intros i l Hi Hn0. rewrite E8 in Hn0.
      pose proof (i_rel _ (proj1 I1)). rewrite nth_error_app1 in Hn0 by lia. exact Hn0.
    + rewrite Hd. auto.
    + rewrite L2, L3. auto.
    + rewrite Hu. eauto.
    + apply (Hlen []); [rewrite app_nil_r; exact Hlg|constructor].
  - (* putstart *)
    destruct Hpc as [P1 P2]. destruct Hgh as [G1 G2]. destruct Hal as (L1 & L2 & L3).
    exists K, kin. eapply (kinv_quiet g K kin c c' [] [] [] KI Wf); rewrite ?app_nil_r; auto.
    + apply same_phase_pcs; assumption.
    + rewrite Hp. apply rel_keeps_refl.
    + rewrite Hd. auto.
    + rewrite L2, L3. auto.
    + intros k' u' Hk' Hu'. rewrite Hu, nth_error_app1 in Hu' by exact Hk'. eauto.
    + apply (Hlen []); [rewrite app_nil_r; exact Hlg|constructor].
  - (* data *)
    destruct Hgh as [G1 G2]. destruct Hal as (L1 & L2 & L3).
    exists K, kin. eapply (kinv_quiet g K kin c c' [_] [] [] KI Wf); rewrite ?app_nil_r; auto.
    + rewrite Hsys. split; reflexivity.
    + rewrite Hsys. apply rel_keeps_refl.
    + exact Hlg.
    + constructor; [exact Logic.I|constructor].
    + rewrite Hd. auto.
    + rewrite L2, L3. auto.
    + intros k' u' Hk' Hu'. rewrite Hu in Hu'. apply A.upd_nth_inv in Hu'. destruct Hu' as [x [Hx [->|[-> ->]]]]; eauto.
    + intros p' k' l0 lo hi u' a Hl0 Hp' Hu' Hlt Ha. rewrite Hlg in Hp' |- *.
      apply E.nth_snoc in Hp'. destruct Hp' as [[Hp1 _]|[-> Hp']]; [lia|].
      injection Hp' as -> -> -> ->. rewrite firstn_app, firstn_all, Nat.sub_diag. cbn. rewrite app_nil_r.
      rewrite Hu in Hu'. apply A.upd_nth_inv in Hu'. destruct Hu' as [x [Hx Hy]]. rewrite Hk in Hx. inv Hx.
      assert (Ea : up_abs u' = up_abs x) by (destruct Hy as [->|[_ ->]]; reflexivity).
      rewrite Ea in Hlt. eapply (k_dup _ _ _ _ KI); eauto.
  - (* writer done *)
    destruct Hgh as [G1 G2].
    exists K, kin. eapply (kinv_quiet g K kin c c' [] [] [] KI Wf); rewrite ?app_nil_r; auto.
    + rewrite Hsys. split; reflexivity.
    + rewrite Hsys. apply rel_keeps_refl.
    + rewrite Hd. auto.
    + intros l0 Hin. destruct Hfh as [[F1 F2]|(l & Hh & _ & F1 & F2)].
      * rewrite F1, F2 in Hin. exact Hin.
      * rewrite F1, F2 in Hin. rewrite !in_app_iff in Hin. rewrite in_app_iff. cbn in Hin.
        destruct Hin as [[Hi|[<-|[]]]|Hi]; auto.
        -- right. apply existsb_loc_in. exact Hh.
        -- right. eapply in_remove_loc; eauto.
    + intros k' u' Hk' Hu'. rewrite Hu in Hu'. apply A.upd_nth_inv in Hu'. destruct Hu' as [x [Hx [->|[-> ->]]]]; eauto.
    + apply (Hlen []); [rewrite app_nil_r; exact Hlg|constructor].
  - (* finalize *)
    destruct Hpc as [P1 P2]. destruct Hal as (L1 & L2 & L3).
    destruct (put_finalize_rel _ _ _ _ _ _ _ Hpf) as (Q1 & Q2 & Q3).
    exists K, kin. eapply (kinv_quiet g K kin c c' extra sd' el' KI Wf); auto.
    + apply same_phase_pcs; assumption.
    + rewrite Hp. unfold rel_keeps. rewrite Q1, Q2, Q3. auto.
    + eapply Forall_impl; [|exact Hex]. intros [] Hx; cbn in *; tauto.
    + rewrite Hd. auto.
    + rewrite L2, L3. auto.
    + intros k' u' Hk' Hu'. rewrite Hu in Hu'. apply A.upd_nth_inv in Hu'. destruct Hu' as [x [Hx [->|[-> ->]]]]; eauto.
    + apply (Hlen extra Hlg). apply isindex_nodata. exact Hex.
  - (* thread *)
    destruct Hgh as [G1 G2].
    pose proof KI as [M B S I0 R0 W0 F D T].
    destruct (A.estep_effect _ _ _ _ _ Hs) as (_ & (_ & _ & _ & _ & S5 & _) & _).
    assert (HnoWS : Forall noWS extra) by (eapply Forall_impl; [|exact Hex]; intros [] Hx; cbn in *; tauto).
    pose proof (Hlen extra Hlg (issync_nodata _ Hex)) as Hnew.
    assert (Hupsame : forall k' u', k' < length (cs_ups c) -> nth_error (cs_ups c') k' = Some u' ->
              exists u, nth_error (cs_ups c) k' = Some u /\ up_abs u' = up_abs u)
      by (intros k' u' _ Hu'; rewrite Hu in Hu'; eauto).
    destruct (scan_noWS (cs_log c) extra HnoWS) as [Elw Ewc].
    assert (Hrel0 : toRelease (s_pbl s') = toRelease (s_pbl (cs_sys c)) ->
              cs_free c' = cs_free c /\ cs_held c' = cs_held c).
    { intros E0. rewrite E0 in Htr. apply app_self_nil in Htr. subst rel. cbn in Hrr. inv Hrr. auto. }
    destruct (thread_cases _ _ _ _ _ I3 Hs) as
      [(Q1 & Q2 & Q3 & Q4 & Q5)|[(G0 & Gw & Gwr & p1 & st & Gg & Gp & Gw' & Gwr')
      |[(O1 & O2 & O3 & (st & O4) & O5 & O6 & O7)|[(F1 & F2 & F3 & F4)|(N1 & N2 & N3 & N4 & N5 & N6)]]]].
    + (* quiet *)
      destruct (Hrel0 Q3) as [Ef Eh].
      exists K, kin. eapply (kinv_quiet g K kin c c' extra [] [] KI Wf); rewrite ?app_nil_r; auto.
      * rewrite Hsys. split; assumption.
      * rewrite Hsys. unfold rel_keeps. rewrite S5, Q3, Q4. auto.
      * rewrite Hd, Q5. auto.
      * rewrite Ef, Eh. auto.
    + (* GetPersistentState *)
      destruct (gps_fields _ _ _ Gg) as (T1 & T2 & T3). rewrite <- Gp in T1, T2, T3.
      destruct (Hrel0 T1) as [Ef Eh].
      exists K, (totalReleased (s_pbl (cs_sys c))).
      apply (kinv_frame g K kin _ c c' extra [] [] KI Wf Hlg HnoWS); rewrite ?app_nil_r;
        [ |exact Hlc|exact G1|exact G2| |exact Hupsame|exact Hnew| | | ].
      * rewrite Hsys, S5. lia.
      * rewrite Ef, Eh. auto.
      * intros st0 Hst0. rewrite Hsys, Gw' in Hst0. injection Hst0 as <-. rewrite G1, G2, Hlc, Hsys, T3. splits; auto.
        -- eapply gps_st_at; eauto. apply (A.ci_g _ _ I). apply (A.ci_locs _ _ I).
        -- intros q st' Hq. rewrite Hlg in Hq. apply nth_app_noW in Hq; eauto.
        -- rewrite Hd, G0. lia.
      * intros _ i l a0 Hi Hn0 Ha. rewrite Hsys in Hi, Hn0. rewrite T2 in Hi. rewrite T1 in Hn0. rewrite Hlc in Ha.
        destruct (Nat.lt_ge_cases a0 (totalReleased (s_pbl (cs_sys c)))) as [Hlt0|Hge]; [exact Hlt0|exfalso].
        unfold regions in Hn. eapply (nodup_app_disj _ _ l Hn).
        -- eapply Hwin; eauto.
        -- apply in_app_iff. left. eapply nth_error_In; eauto.
      * intros Hw. rewrite Hsys, Gwr' in Hw. discriminate.
    + (* the write returned nil *)
      rewrite <- O7 in Hrel0. destruct (Hrel0 eq_refl) as [Ef Eh].
      assert (Hpc6 : cs_dirpc c = 6).
      { rewrite O1, O2 in Hg. cbn in Hg. apply negb_false_iff in Hg. apply Nat.eqb_eq in Hg. exact Hg. }
      exists K, kin. apply (kinv_frame g K kin kin c c' extra [] [] KI Wf Hlg HnoWS); rewrite ?app_nil_r;
        [ |exact Hlc|exact G1|exact G2| |exact Hupsame|exact Hnew| | | ].
      * rewrite Hsys, O7. lia.
      * rewrite Ef, Eh. auto.
      * intros st0 Hst0. rewrite Hsys, O5 in Hst0. discriminate.
      * intros _ i l a0 Hi Hn0 Ha. rewrite Hsys, O7 in Hi, Hn0. rewrite Hlc in Ha.
        eapply R0; eauto. left. rewrite O4. discriminate.
      * intros _. destruct (I0 st O4) as (_ & _ & _ & J4). destruct (J4 ltac:(lia)) as [J5 J6].
        destruct (Sh2 st O4) as [E0|E0]; [lia|]. rewrite Hpc6 in E0. symmetry in E0. apply dpc6 in E0.
        exists (dwc (cs_log c)). rewrite Hlg, Elw. auto.
    + (* the write failed *)
      rewrite <- F4 in Hrel0. destruct (Hrel0 eq_refl) as [Ef Eh].
      exists K, kin. apply (kinv_frame g K kin kin c c' extra [] [] KI Wf Hlg HnoWS); rewrite ?app_nil_r;
        [ |exact Hlc|exact G1|exact G2| |exact Hupsame|exact Hnew| | | ].
      * rewrite Hsys, F4. lia.
      * rewrite Ef, Eh. auto.
      * intros st0 Hst0. rewrite Hsys, F2 in Hst0. discriminate.
      * intros [Hh|Hh]; rewrite Hsys in Hh; [rewrite F2 in Hh; congruence|rewrite F3 in Hh; discriminate].
      * intros Hw. rewrite Hsys, F3 in Hw. discriminate.
    + (* NotifyPersistentStateWritten *)
      destruct (nsw_fields _ _ N4) as (T1 & T2 & T3).
      destruct (release_regions_spec _ _ _ _ _ _ _ Hrr) as (_ & _ & Mem).
      assert (Erel : rel = firstn (releasing (s_pbl (cs_sys c))) (toRelease (s_pbl (cs_sys c)))).
      { rewrite T1 in Htr. rewrite <- (firstn_skipn (releasing (s_pbl (cs_sys c))) (toRelease (s_pbl (cs_sys c)))) in Htr at 1.
        apply app_inv_tail in Htr. symmetry. exact Htr. }
      destruct (W0 N1) as (w & Ww1 & Ww2).
      exists K, kin. apply (kinv_frame g K kin kin c c' extra [] [] KI Wf Hlg HnoWS); rewrite ?app_nil_r;
        [ |exact Hlc|exact G1|exact G2| |exact Hupsame|exact Hnew| | | ].
      * rewrite Hsys, T3. lia.
      * intros l Hin. rewrite Hfr, Hhd in Hin. destruct (Mem l Hin) as [Hm|Hm]; [auto|right].
        intros a0 Ha. rewrite Erel in Hm. apply In_nth_error in Hm. destruct Hm as [i Hi].
        apply E.nth_firstn in Hi. destruct Hi as [Hi1 Hi2].
        unfold kd. rewrite Ww1, Ww2. eapply R0; eauto. right. exact N1.
      * intros st0 Hst0. rewrite Hsys, N5 in Hst0. discriminate.
      * intros [Hh|Hh]; rewrite Hsys in Hh; [rewrite N5 in Hh; congruence|rewrite N6 in Hh; discriminate].
      * intros Hw. rewrite Hsys, N6 in Hw. discriminate.
  - (* dir *)
    pose proof KI as [M B S I0 R0 W0 F D T].
    destruct Hgh as [G1 G2]. destruct Hal as (L1 & L2 & L3).
    destruct (I0 st Hw) as (J1 & J2 & J3 & J4).
    pose proof (dscan_facts (cs_log c)) as (F1 & F2 & F3).
    destruct (Nat.eq_dec (cs_dirpc c) 2) as [E2|N2]; [|destruct (Nat.eq_dec (cs_dirpc c) 5) as [E5|N5]].
    + (* the write *)
      rewrite E2 in Hlg, Hd. cbn [dir_op] in Hlg.
      set (K' := fun q => if Nat.eqb q (length (cs_log c)) then kin else K q).
      assert (HK : forall q, q < (length (cs_log c)) -> K' q = K q).
      { intros q Hq. unfold K'. destruct (Nat.eqb_spec q (length (cs_log c))); [lia|reflexivity]. }
      assert (HKn : K' (length (cs_log c)) = kin) by (unfold K'; rewrite Nat.eqb_refl; reflexivity).
      clearbody K'.
      assert (Hsc : dlw (cs_log c') = dlw (cs_log c) /\ dwc (cs_log c') = (length (cs_log c))).
      { unfold dlw, dwc. rewrite Hlg, dscan_snoc. destruct (dscan (cs_log c)) as [[[pos pc] wc] lw]. cbn in *. subst pos. auto. }
      destruct Hsc as [Elw Ewc].
      assert (HWpos : forall q st', nth_error (cs_log c') q = Some (IoWriteNew st') ->
                (q < (length (cs_log c)) /\ nth_error (cs_log c) q = Some (IoWriteNew st')) \/ (q = (length (cs_log c)) /\ st' = (st, g_hinit g))).
      { intros q st' Hq. rewrite Hlg in Hq. apply E.nth_snoc in Hq. destruct Hq as [[Q1 Q2]|[Q1 Q2]]; [auto|].
        right. injection Q2 as Q2. auto. }
      assert (Hkd : kd K' (cs_log c') = kd K (cs_log c)).
      { unfold kd. rewrite Elw. destruct (dlw (cs_log c)) as [w|] eqn:Ew0; [|reflexivity]. apply HK. apply dlw_lt in Ew0. exact Ew0. }
      exists K', kin. constructor.
      * intros p1 p2 st1 st2 Hle H1 H2. destruct (HWpos _ _ H1) as [[A1 A2]|[A1 A2]], (HWpos _ _ H2) as [[B1 B2]|[B1 B2]].
        -- rewrite !HK by lia. eauto.
        -- subst p2. rewrite HKn, HK by lia. eauto.
        -- lia.
        -- rewrite A1, B1. lia.
      * intros q st' Hq. rewrite Hsys. destruct (HWpos _ _ Hq) as [[A1 A2]|[A1 A2]].
        -- rewrite HK by lia. eauto.
        -- subst q. rewrite HKn. exact J2.
      * intros q st' h Hq. rewrite G1, G2, L1. destruct (HWpos _ _ Hq) as [[A1 A2]|[A1 A2]].
        -- rewrite HK by lia. eauto.
        -- subst q. injection A2 as -> _. rewrite HKn. exact J1.
      * intros st0 Hst0. rewrite Hsys, Hw in Hst0. injection Hst0 as <-. rewrite G1, G2, L1, Hsys. splits; auto.
        -- intros q st' Hq. destruct (HWpos _ _ Hq) as [[A1 A2]|[A1 A2]].
           ++ rewrite HK by lia. eauto.
           ++ subst q. rewrite HKn. lia.
        -- intros _. rewrite Ewc. split; [|exact HKn]. rewrite Hlg. apply E.nth_snoc_new.
      * intros Hh i l a. rewrite Hsys, L1. rewrite Hsys in Hh. eauto.
      * intros Hwr. rewrite Hsys in Hwr. destruct (W0 Hwr) as (w & W1 & W2). exists w. rewrite Elw. split; [exact W1|].
        rewrite HK; [exact W2|]. apply dlw_lt in W1. exact W1.
      * intros l a. rewrite Hkd, L1, L2, L3. eauto.
      * intros a a' l. rewrite Hkd, L1. eauto.
      * intros p' k' l lo hi u' a Hp' Hu' Hlt0 Ha. rewrite Hlg in Hp' |- *. rewrite Hu in Hu'. rewrite L1 in Ha.
        apply E.nth_snoc in Hp'. destruct Hp' as [[Hp1 Hp2]|[_ Hp2]]; [|discriminate].
        rewrite E.firstn_app_le by lia.
        rewrite (kd_agree K K' (length (cs_log c))); [eauto|exact HK|]. rewrite firstn_length. lia.
    + (* the directory fsync *)
      rewrite E5 in Hlg, Hd. cbn [dir_op] in Hlg.
      destruct (J4 ltac:(lia)) as [J5 J6].
      destruct (Sh2 st Hw) as [E0|E0]; [lia|]. rewrite E5 in E0.
      assert (Hsc : dlw (cs_log c') = Some (dwc (cs_log c)) /\ dwc (cs_log c') = dwc (cs_log c)).
      { unfold dlw, dwc. rewrite Hlg, dscan_snoc. destruct (dscan (cs_log c)) as [[[pos pc] wc] lw]. cbn. auto. }
      destruct Hsc as [Elw Ewc].
      assert (HW : forall q st', nth_error (cs_log c') q = Some (IoWriteNew st') ->
                nth_error (cs_log c) q = Some (IoWriteNew st')).
      { intros q st' Hq. rewrite Hlg in Hq. apply E.nth_snoc in Hq. destruct Hq as [[Q1 Q2]|[Q1 Q2]]; [auto|discriminate]. }
      assert (Hkd' : kd K (cs_log c') = kin) by (unfold kd; rewrite Elw; exact J6).
      assert (Hkd : kd K (cs_log c) <= kin).
      { unfold kd. destruct (dlw (cs_log c)) as [w|] eqn:Ew0; [|lia].
        destruct (proj2 (shaped_scan _ Sh1) _ Ew0) as [stw Hstw]. eauto. }
      exists K, kin. constructor.
      * intros p1 p2 st1 st2 Hle H1 H2. eauto.
      * intros q st' Hq. rewrite Hsys. eauto.
      * intros q st' h Hq. rewrite G1, G2, L1. eauto.
      * intros st0 Hst0. rewrite Hsys, Hw in Hst0. injection Hst0 as <-. rewrite G1, G2, L1, Hsys. splits; auto.
        -- intros q st' Hq. eauto.
        -- intros _. rewrite Ewc. split; [|exact J6]. rewrite Hlg. apply E.nth_snoc_old. exact J5.
      * intros Hh i l a. rewrite Hsys, L1. rewrite Hsys in Hh. eauto.
      * intros _. exists (dwc (cs_log c)). auto.
      * intros l a Hin Ha. rewrite Hkd'. rewrite L1 in Ha. rewrite L2, L3 in Hin. specialize (F _ _ Hin Ha). lia.
      * intros a a' l Hlt0 H1 H2. rewrite Hkd'. rewrite L1 in H1, H2. specialize (D _ _ _ Hlt0 H1 H2). lia.
      * intros p' k' l lo hi u' a Hp' Hu' Hlt0 Ha. rewrite Hlg in Hp' |- *. rewrite Hu in Hu'. rewrite L1 in Ha.
        apply E.nth_snoc in Hp'. destruct Hp' as [[Hp1 Hp2]|[_ Hp2]]; [|discriminate].
        rewrite E.firstn_app_le by lia. eauto.
    + (* remove, create, fsync, rename *)
      exists K, kin. eapply (kinv_quiet g K kin c c' [_] [] [] KI Wf); rewrite ?app_nil_r; auto.
      * rewrite Hsys. split; reflexivity.
      * rewrite Hsys. apply rel_keeps_refl.
      * exact Hlg.
      * constructor; [|constructor]. unfold dir_ops_total in Hlt.
        destruct (cs_dirpc c) as [|[|[|[|[|[|?]]]]]]; cbn; auto; lia.
      * rewrite Hd. lia.
      * rewrite L2, L3. auto.
      * rewrite Hu. eauto.
      * apply (Hlen _ Hlg). constructor; [|constructor].
        destruct (cs_dirpc c) as [|[|[|[|[|?]]]]]; exact Logic.I.
Qed.

Lemma cinit_kinv g t0 : kinv g (fun _ => 0) 0 (cinit g medium_empty t0).
Proof.
  constructor; cbn.
  - intros p1 p2 st1 st2 _ H. destruct p1; discriminate.
  - intros q st H. destruct q; discriminate.
  - intros q st h H. destruct q; discriminate.
  - intros st H. cbn in H. discriminate.
  - intros [H|H]; cbn in H; [congruence|discriminate].
  - intros H. cbn in H. discriminate.
  - intros l a _ H. destruct a; discriminate.
  - intros a a' l _ H. destruct a; discriminate.
  - intros p' k' l lo hi u' a H. destruct p'; discriminate.
Qed.

(** (4): in every reachable state of the first life there are window starts [K] for the state
    writes of the log that are non-decreasing, describe the payloads, and exceed every earlier
    block index on the same region at each data write *)
Theorem creach_kinv g cfg t0 c : length (g_locs g) < 65536 -> NoDup (g_locs g) ->
  creach g cfg medium_empty t0 c -> exists K kin, kinv g K kin c.
Proof.
  intros Hg Hnd. apply (creach_ind g cfg medium_empty t0 (fun c => exists K kin, kinv g K kin c)).
  - exists (fun _ => 0), 0. apply cinit_kinv.
  - intros c0 e c' R [K [kin KI]] Hs. destruct (creach_sysinv _ _ _ _ _ R) as [I1 I3].
    eapply kinv_step; eauto.
    + eapply A.creach_cinv; eauto.
    + eapply creach_rinv; eauto.
    + eapply creach_wf_ups; eauto.
    + eapply creach_shaped; eauto.
Qed.

Theorem region_reused_only_after_durable_state g cfg t0 c : length (g_locs g) < 65536 -> NoDup (g_locs g) ->
  creach g cfg medium_empty t0 c -> exists K, reuse_witness c K.
Proof.
  intros Hg Hnd R. destruct (creach_kinv _ _ _ _ Hg Hnd R) as (K & kin & [M B S I0 R0 W0 F D T]).
  exists K. constructor; auto. apply (creach_shaped _ _ _ _ _ R).
Qed.

Theorem crash_safe_bytes : forall g cfg t0 c, length (g_locs g) < 65536 -> NoDup (g_locs g) ->
  creach g cfg medium_empty t0 c ->
  forall n ch slot r i, resolves g (crash_of medium_empty c n ch) slot r i ->
  exists up l, nth_error (cs_ups c) (r_up r) = Some up /\
    block_loc (fst (restart (geom g) (m_state (crash_of medium_empty c n ch)))) i = Some l /\
    nth_error (cs_locs c) (up_abs up) = Some l /\
    forall z, (r_off r <= z < r_off r + r_size r)%Z ->
      byte_owner (m_data (crash_of medium_empty c n ch)) l z None = Some (r_up r).
Proof.
  intros g cfg t0 c Hg Hnd R. apply (crash_safe_bytes_from_witness g cfg t0 c Hg Hnd R).
  eapply region_reused_only_after_durable_state; eauto.
Qed.

Print Assumptions owner_of_last_write.
Print Assumptions upload_writes_tile.
Print Assumptions same_block_disjoint.
Print Assumptions regions_distinct.
Print Assumptions reuse_writes_ordered.
Print Assumptions dir_survivor.
Print Assumptions creach_shaped.
Print Assumptions crash_state_survivor.
Print Assumptions crash_safe_bytes_partial.
Print Assumptions witness_no_later_reuse.
Print Assumptions crash_safe_bytes_from_witness.
Print Assumptions crash_safe_bytes_partial4.
Print Assumptions creach_kinv.
Print Assumptions region_reused_only_after_durable_state.
Print Assumptions crash_safe_bytes.
