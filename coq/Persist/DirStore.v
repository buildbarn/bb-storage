(** Model of pkg/blobstore/local/directory_backed_persistent_state_store.go over
    a directory with a volatile and a durable name space (the fault model of
    C02 for the state directory: a name-space operation is durable once the
    directory was fsynced after it; a file's content is durable once the file
    was fsynced; a power cut keeps exactly what is durable, an un-synced file
    then holds garbage).  Definitions only.

    WritePersistentState performs, in this order:
      1 Remove(state.new)         (a missing file is not an error)
      2 OpenAppend(state.new, O_EXCL)
      3 Write(data)               (one call)
      4 Sync()  of the file
      5 Close() of the file
      6 Rename(state.new -> state)
      7 Sync()  of the directory
    and returns the first error (after closing the file when 3 or 4 failed). *)
From Coq Require Import List ZArith Bool Arith.
Import ListNotations.

Inductive content := Empty | Full (d : Z) | Garbage.
Record file := { f_c : content; f_synced : bool }.
Record dir := { v_state : option file; v_new : option file; d_state : option file; d_new : option file }.

Definition dir_empty : dir := {| v_state := None; v_new := None; d_state := None; d_new := None |}.

Definition set_new (s : dir) (f : option file) : dir :=
  {| v_state := v_state s; v_new := f; d_state := d_state s; d_new := d_new s |}.

Definition op_remove (s : dir) : option dir := Some (set_new s None).
Definition op_create (s : dir) : option dir :=
  match v_new s with
  | Some _ => None
  | None => Some (set_new s (Some {| f_c := Empty; f_synced := false |}))
  end.
Definition op_write (d : Z) (s : dir) : option dir :=
  match v_new s with
  | None => None
  | Some _ => Some (set_new s (Some {| f_c := Full d; f_synced := false |}))
  end.
Definition op_fsync (s : dir) : option dir :=
  match v_new s with
  | None => None
  | Some f => Some (set_new s (Some {| f_c := f_c f; f_synced := true |}))
  end.
Definition op_close (s : dir) : option dir := Some s.
Definition op_rename (s : dir) : option dir :=
  match v_new s with
  | None => None
  | Some f => Some {| v_state := Some f; v_new := None; d_state := d_state s; d_new := d_new s |}
  end.
Definition op_dsync (s : dir) : option dir :=
  Some {| v_state := v_state s; v_new := v_new s; d_state := v_state s; d_new := v_new s |}.

(** one numbered directory operation of a call: [fault] = the number of the
    operation that fails by injection (0 = none); [killed] = the process dies
    at that operation instead (no clean-up runs, nothing is returned) *)
Definition call_step (k : nat) (fault : nat) (killed : bool) (f : dir -> option dir) (cleanup : list Z)
    (cont : dir -> list Z -> dir * bool * list Z) (s : dir) (log : list Z) : dir * bool * list Z :=
  let log' := log ++ [Z.of_nat k] in
  if Nat.eqb fault k then (s, false, if killed then log' else log' ++ cleanup)
  else match f s with
       | None => (s, false, log' ++ cleanup)
       | Some s' => cont s' log'
       end.

(** (state after, returned OK?, directory operations attempted) *)
Definition write_call (s : dir) (d : Z) (fault : nat) (killed : bool) : dir * bool * list Z :=
  call_step 1 fault killed op_remove []
   (call_step 2 fault killed op_create []
     (call_step 3 fault killed (op_write d) [5%Z]
       (call_step 4 fault killed op_fsync [5%Z]
         (call_step 5 fault killed op_close []
           (call_step 6 fault killed op_rename []
             (call_step 7 fault killed op_dsync []
               (fun s log => (s, true, log)))))))) s [].

(** power cut: only what is durable remains; un-synced content is garbage *)
Definition settle (f : file) : file := if f_synced f then f else {| f_c := Garbage; f_synced := true |}.
Definition power (s : dir) : dir :=
  let ds := option_map settle (d_state s) in
  let dn := option_map settle (d_new s) in
  {| v_state := ds; v_new := dn; d_state := ds; d_new := dn |}.

(** ReadPersistentState: the state id, [None] = a fresh state (no file, or a
    file that does not parse) *)
Definition rd (f : option file) : option Z :=
  match f with
  | Some {| f_c := Full d |} => Some d
  | _ => None
  end.
Definition read_state (s : dir) : option Z := rd (v_state s).

Inductive event :=
| EWrite (d : Z) (fault : nat)     (* a call with an injected failure at operation [fault] (0 = none) *)
| EKill (d : Z) (k : nat)          (* the process is killed at operation [k] of a call; a new process starts *)
| EPower                           (* power cut and restart *)
| ERead.

Inductive eobs :=
| OWrite (ok : bool) (log : list Z)
| OKill (log : list Z)
| OPower
| ORead (r : option Z).

Definition dstep (s : dir) (e : event) : dir * eobs :=
  match e with
  | EWrite d fault => let '(s', ok, log) := write_call s d fault false in (s', OWrite ok log)
  | EKill d k => let '(s', _, log) := write_call s d k true in (s', OKill log)
  | EPower => (power s, OPower)
  | ERead => (s, ORead (read_state s))
  end.

Fixpoint drun (s : dir) (es : list event) : list eobs :=
  match es with
  | [] => []
  | e :: t => let '(s', o) := dstep s e in o :: drun s' t
  end.

Fixpoint dfinal (s : dir) (es : list event) : dir :=
  match es with
  | [] => s
  | e :: t => dfinal (fst (dstep s e)) t
  end.

(** ---- the property as a check on observations ----
    [m_committed]: the state of the last call that returned OK ([None] = none
    yet: a fresh state); [m_cands]: the states of calls that failed or were
    killed since then (each may or may not have replaced the state file).
    clause 1: a call without injected failure returns OK;
    clause 2: a read returns the committed state or one of the candidates. *)
Record mstate := { m_committed : option Z; m_cands : list Z; m_viol : list Z }.
Definition m_init : mstate := {| m_committed := None; m_cands := []; m_viol := [] |}.

Definition oz_eqb (a b : option Z) : bool :=
  match a, b with
  | None, None => true
  | Some x, Some y => Z.eqb x y
  | _, _ => false
  end.

Definition allowed_read (m : mstate) (r : option Z) : bool :=
  oz_eqb r (m_committed m) || existsb (fun c => oz_eqb r (Some c)) (m_cands m).

Definition mstep (m : mstate) (e : event) (o : eobs) : mstate :=
  match e, o with
  | EWrite d fault, OWrite ok _ =>
      let v := if Nat.eqb fault 0 && negb ok then [1%Z] else [] in
      if ok then {| m_committed := Some d; m_cands := []; m_viol := m_viol m ++ v |}
      else {| m_committed := m_committed m; m_cands := d :: m_cands m; m_viol := m_viol m ++ v |}
  | EKill d _, _ => {| m_committed := m_committed m; m_cands := d :: m_cands m; m_viol := m_viol m |}
  | ERead, ORead r =>
      {| m_committed := m_committed m; m_cands := m_cands m;
         m_viol := m_viol m ++ (if allowed_read m r then [] else [2%Z]) |}
  | _, _ => m
  end.

Fixpoint mrun (m : mstate) (es : list event) (os : list eobs) : mstate :=
  match es, os with
  | e :: es', o :: os' => mrun (mstep m e o) es' os'
  | _, _ => m
  end.

(** PeriodicSyncer.writePersistentStateRetrying: the same state is written again
    until a call returns OK; [faults] = the operation at which each successive
    attempt fails (0 = that attempt suffers no fault), a fault-free attempt
    follows when the list is exhausted.  Returns the directory and the number
    of attempts made. *)
Fixpoint retry_write (s : dir) (d : Z) (faults : list nat) : dir * nat :=
  match faults with
  | [] => (fst (fst (write_call s d 0 false)), 1%nat)
  | f :: fs =>
      let '(s', ok, _) := write_call s d f false in
      if ok then (s', 1%nat) else let '(s'', n) := retry_write s' d fs in (s'', S n)
  end.
