(** Persist/LiveTop.v — the coverage and liveness theorems for states reachable
    from NewPersistentBlockList + NewPeriodicSyncer by any schedule. *)
From Coq Require Import List NArith ZArith Bool Arith Lia.
From BBS Require Import Persist.PBL Persist.Syncer Persist.SyncerProofs
  Persist.LiveActs Persist.LiveCover Persist.LiveRelease Persist.LiveFair Persist.LiveEpoch.
Import ListNotations.

Theorem upload_covered_reach cfg alloc oldest init t0
    s1 k blk seed s1' abs size off p' trA s2 e2 s2' trB s3 e3 s3' trC s4 e4 s4' t :
  reachable cfg alloc oldest init t0 s1 ->
  step cfg s1 (EFinalize k blk seed) = Some (Ok s1') ->
  nth_error (s_uploads s1) k = Some (Some (PutAt abs, size)) ->
  put_finalize (PutAt abs) blk size seed (s_pbl s1) = Ok (p', FinOk off) ->
  run cfg s1' trA = Some (Ok s2) -> step cfg s2 e2 = Some (Ok s2') -> sync_starts s2 e2 = true ->
  run cfg s2' trB = Some (Ok s3) -> step cfg s3 e3 = Some (Ok s3') -> sync_completes s3 e3 = true ->
  run cfg s3' trC = Some (Ok s4) -> step cfg s4 e4 = Some (Ok s4') -> act_of s4 e4 = AGetState t ->
  let o := obj_of (s_pbl s1) p' abs (off + size) in
  let d := popsum cfg s1' trA + popsum cfg s2' trB + popsum cfg s3' trC in
  abs < totalReleased (s_pbl s4) \/
  exists st, written_state s4' t = Some st /\ covers st (abs - totalReleased (s_pbl s4)) o (o_epoch o - d).
Proof.
  intros R Hs1 Hu Hf HA H2 Hst HB H3 Hco HC H4 Hg o d.
  destruct (upload_covered_seg cfg s1 k blk seed s1' abs size off p' trA s2 e2 s2' trB s3 e3 s3' trC s4 e4 s4' t
              (reachable_linv _ _ _ _ _ _ R) Hs1 Hu Hf HA H2 Hst HB H3 Hco HC H4 Hg) as [Hr|(st & Hw & Hc & _)];
    [left; exact Hr|right; exists st; split; assumption].
Qed.

Theorem release_covered_reach cfg alloc oldest init t0 s1 fb rest s1' trA s4 e4 s4' t :
  reachable cfg alloc oldest init t0 s1 ->
  blocks (s_pbl s1) = fb :: rest -> step cfg s1 EPopFront = Some (Ok s1') ->
  run cfg s1' trA = Some (Ok s4) -> no_getstate cfg s1' trA = true ->
  step cfg s4 e4 = Some (Ok s4') -> act_of s4 e4 = AGetState t ->
  In (b_loc fb) (toRelease (s_pbl s4))
  /\ totalReleased (s_pbl s1) < totalReleased (s_pbl s4)
  /\ (exists st, written_state s4' t = Some st /\
        forall j e, nth_error (snd st) j = Some e ->
          exists b, nth_error (blocks (s_pbl s4)) j = Some b /\ bs_loc e = b_loc b)
  /\ forall trB s5 e5 s5' t',
       run cfg s4' trB = Some (Ok s5) -> no_getstate cfg s4' trB = true ->
       step cfg s5 e5 = Some (Ok s5') -> act_of s5 e5 = AWritten t' ->
       t' = t /\ releasedLog (s_pbl s5') = releasedLog (s_pbl s5) ++ toRelease (s_pbl s4).
Proof.
  intros R. destruct (reachable_ainv _ _ _ _ _ _ R) as [L [_ I3]]. apply release_covered_seg; assumption.
Qed.

Theorem release_eventually_reach cfg alloc oldest init t0 s :
  reachable cfg alloc oldest init t0 s -> toRelease (s_pbl s) <> [] ->
  exists ext s', fair ext = true /\ length ext <= 10 /\ run cfg s ext = Some (Ok s')
    /\ toRelease (s_pbl s') = [] /\ releasedLog (s_pbl s') = releasedLog (s_pbl s) ++ toRelease (s_pbl s).
Proof. intros R. apply release_eventually. eapply reachable_ainv; eauto. Qed.

Theorem upload_covered_epoch_id_reach cfg alloc oldest init t0
    s1 k blk seed s1' abs size off p' trA s2 e2 s2' trB s3 e3 s3' trC s4 e4 s4' t :
  reachable cfg alloc oldest init t0 s1 ->
  step cfg s1 (EFinalize k blk seed) = Some (Ok s1') ->
  nth_error (s_uploads s1) k = Some (Some (PutAt abs, size)) ->
  put_finalize (PutAt abs) blk size seed (s_pbl s1) = Ok (p', FinOk off) ->
  run cfg s1' trA = Some (Ok s2) -> step cfg s2 e2 = Some (Ok s2') -> sync_starts s2 e2 = true ->
  run cfg s2' trB = Some (Ok s3) -> step cfg s3 e3 = Some (Ok s3') -> sync_completes s3 e3 = true ->
  run cfg s3' trC = Some (Ok s4) -> step cfg s4 e4 = Some (Ok s4') -> act_of s4 e4 = AGetState t ->
  let o := obj_of (s_pbl s1) p' abs (off + size) in
  let d := popsum cfg s1' trA + popsum cfg s2' trB + popsum cfg s3' trC in
  abs < totalReleased (s_pbl s4) \/
  exists st ref, written_state s4' t = Some st
    /\ index_to_ref (abs - totalReleased p') p' = Ok (ref, o_seed o)
    /\ d <= o_epoch o
    /\ fst ref = u32 (fst st + N.of_nat (o_epoch o - d)).
Proof. intros R. apply upload_covered_epoch_id. eapply reachable_linv; eauto. Qed.
