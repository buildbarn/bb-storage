(** Persist/CrashEpochProofs.v — the durability half of crash safety of the
    instrumented transition system of Persist/CrashLts.v: a record that
    resolves after a crash at ANY log prefix, under ANY loss choice, designates
    an upload that was finalized successfully and whose data writes are all
    below the durable frontier of the prefix.  Proved by one state invariant
    ([rcinv]) preserved by every [cstep], for a life that starts on ANY medium
    [base] whose index records are described by an abstract predicate [Back]:

      [Back r]   "record [r] designates (key, offset, size of) a completed upload
                  of an EARLIER life all of whose data was durable when that
                  life crashed" — the file only uses that [Back] depends on the
                  key / offset / size of a record alone ([Back_same]);
      [old]      the seeds that occur in the base index (= [cs_old]);
      [sd0]      the seeds restored from the base state file at the restart.

    The upload tags [r_up] / [IoData u] of CrashLts.v are indices into the
    upload table of ONE life, so a record that the new life re-writes with
    [IwMove] from a base record carries a stale tag.  The invariant therefore
    says of every record write of the life: it is NATIVE (designates a
    completed upload of this life, written after all its data) OR [Back]; of
    every table entry whose seed is a seed of the life: native or [Back]
    (entries with a dead seed can never be read successfully: [TS] + the
    [fresh] guard).  Besides:
      [LN]  no record written in this life carries a restored seed;
      [WN]/[FN] the seeds of every state file written / in flight are duplicate free;
      [P0]  the restored seeds stay the first seeds of the life; a seed of the
            life that also occurs in the base index is a restored one.
    The FIRST life (base medium = [medium_empty]) is the instance [cinv]: no
    record is [Back], nothing is restored.  Stdlib only; no axioms. *)
From Coq Require Import List NArith ZArith Bool Arith Lia.
From BBS Require Import Persist.PBL Persist.PBLProofs Persist.Syncer Persist.SyncerProofs
                        Persist.Crash Persist.CrashLts.
From BBS Require Persist.CrashAllocProofs.
Import ListNotations.

Module A := BBS.Persist.CrashAllocProofs.

Local Notation log := (list (io irec)).

Section ListFacts.
  Context {A : Type}.
  Implicit Types l : list A.

  Lemma nth_lt l pos x : nth_error l pos = Some x -> pos < length l.
  Proof. intros H. apply nth_error_Some. congruence. Qed.

  Lemma nth_snoc l e pos x : nth_error (l ++ [e]) pos = Some x ->
    (pos < length l /\ nth_error l pos = Some x) \/ (pos = length l /\ x = e).
  Proof.
    intros H. apply CrashAllocProofs.nth_error_snoc_inv in H. destruct H as [H|[-> ->]]; [left|right; auto].
    split; [eapply nth_lt; eauto|exact H].
  Qed.

  Lemma nth_snoc_old l e pos x : nth_error l pos = Some x -> nth_error (l ++ [e]) pos = Some x.
  Proof. intros H. rewrite nth_error_app1; [exact H|eapply nth_lt; eauto]. Qed.

  Lemma nth_snoc_new l e : nth_error (l ++ [e]) (length l) = Some e.
  Proof. rewrite nth_error_app2 by lia. rewrite Nat.sub_diag. reflexivity. Qed.

  Lemma nth_firstn l : forall n q x, nth_error (firstn n l) q = Some x -> q < n /\ nth_error l q = Some x.
  Proof.
    induction l as [|a l IH]; intros [|n] [|q] x H; cbn in *; try discriminate.
    - split; [lia|exact H].
    - apply IH in H. split; [lia|tauto].
  Qed.

  Lemma nth_firstn_lt l : forall n q, q < n -> nth_error (firstn n l) q = nth_error l q.
  Proof.
    induction l as [|a l IH]; intros [|n] [|q] H; cbn in *; try lia; try reflexivity.
    apply IH. lia.
  Qed.

  Lemma firstn_prefix l q n : q <= n -> exists l', firstn n l = firstn q l ++ l'.
  Proof.
    intros H. exists (skipn q (firstn n l)).
    rewrite <- (firstn_skipn q (firstn n l)) at 1. f_equal.
    rewrite firstn_firstn. f_equal. lia.
  Qed.

  Lemma in_firstn_nth l n x : In x (firstn n l) -> exists j, j < n /\ nth_error l j = Some x.
  Proof. intros H. apply In_nth_error in H. destruct H as [j H]. exists j. eapply nth_firstn; eauto. Qed.

  Lemma nth_in_firstn l n j x : j < n -> nth_error l j = Some x -> In x (firstn n l).
  Proof. intros H1 H2. eapply nth_error_In. rewrite nth_firstn_lt; eauto. Qed.

  Lemma nodup_not_in_firstn l n i x : NoDup l -> nth_error l i = Some x -> n <= i -> ~ In x (firstn n l).
  Proof.
    intros Hn Hi Hle Hin. apply in_firstn_nth in Hin. destruct Hin as [j [Hj Hx]].
    assert (i = j); [|lia].
    eapply (proj1 (NoDup_nth_error l) Hn); [eapply nth_lt; eauto|congruence].
  Qed.

  Lemma in_firstn_mono l l' n n' x : In x (firstn n l) -> n <= n' -> In x (firstn n' (l ++ l')).
  Proof.
    intros H Hle. apply in_firstn_nth in H. destruct H as [j [Hj Hx]].
    eapply nth_in_firstn with (j := j); [lia|].
    rewrite nth_error_app1; [exact Hx|eapply nth_lt; eauto].
  Qed.

  Lemma in_firstn_le l n n' x : In x (firstn n l) -> n <= n' -> In x (firstn n' l).
  Proof. intros H Hle. rewrite <- (app_nil_r l). eapply in_firstn_mono; eauto. Qed.

  Lemma firstn_app_le l l' n : n <= length l -> firstn n (l ++ l') = firstn n l.
  Proof.
    intros H. rewrite firstn_app. replace (n - length l) with 0 by lia. cbn. apply app_nil_r.
  Qed.

  Lemma firstn_snoc l e q : q <= length l -> firstn q (l ++ [e]) = firstn q l.
  Proof. apply firstn_app_le. Qed.
End ListFacts.

Definition dinv (st : nat * option nat * nat) : Prop :=
  snd st <= fst (fst st) /\ forall b, snd (fst st) = Some b -> snd st <= b /\ b < fst (fst st).

Lemma dur_step_inv st (e : io irec) : dinv st ->
  dinv (dur_step st e) /\ snd st <= snd (dur_step st e) /\ fst (fst (dur_step st e)) = S (fst (fst st)).
Proof.
  destruct st as [[pos beg] dur]. unfold dinv. cbn. intros [H1 H2].
  destruct e as [u l lo hi| |[|]|slot r| | |st| | |]; cbn.
  all: try (split; [split; [lia|intros b Hb; specialize (H2 b Hb); lia]|split; [lia|reflexivity]]).
  - split; [split; [lia|intros b Hb; inversion Hb; subst; lia]|split; [lia|reflexivity]].
  - destruct beg as [b|].
    + destruct (H2 b eq_refl). split; [split; [lia|intros b' Hb; discriminate]|split; [lia|reflexivity]].
    + split; [split; [lia|intros b' Hb; discriminate]|split; [lia|reflexivity]].
  - split; [split; [lia|intros b' Hb; discriminate]|split; [lia|reflexivity]].
Qed.

Lemma dur_fold (l : log) : forall st, dinv st ->
  dinv (fold_left dur_step l st) /\ snd st <= snd (fold_left dur_step l st)
  /\ fst (fst (fold_left dur_step l st)) = length l + fst (fst st).
Proof.
  induction l as [|e l IH]; intros st H; cbn [fold_left length].
  - split; [exact H|split; [lia|reflexivity]].
  - destruct (dur_step_inv st e H) as [H1 [H2 H3]].
    destruct (IH _ H1) as [H4 [H5 H6]]. split; [exact H4|split; [lia|]]. rewrite H6, H3. lia.
Qed.

Lemma dinv0 : dinv (0, None, 0).
Proof. unfold dinv. cbn. split; [lia|intros b H; discriminate]. Qed.

Lemma dur_scan_inv (L : log) : dinv (dur_scan L) /\ fst (fst (dur_scan L)) = length L.
Proof.
  destruct (dur_fold L _ dinv0) as [H1 [_ H3]]. split; [exact H1|]. unfold dur_scan. rewrite H3. cbn. lia.
Qed.

Lemma dur_scan_app (L L' : log) : dur_scan (L ++ L') = fold_left dur_step L' (dur_scan L).
Proof. unfold dur_scan. apply fold_left_app. Qed.

Lemma dur_scan_snoc (L : log) e : dur_scan (L ++ [e]) = dur_step (dur_scan L) e.
Proof. rewrite dur_scan_app. reflexivity. Qed.

Lemma durable_mono (L L' : log) : durable_upto L <= durable_upto (L ++ L').
Proof.
  unfold durable_upto. rewrite dur_scan_app.
  destruct (dur_fold L' _ (proj1 (dur_scan_inv L))) as [_ [H _]]. exact H.
Qed.

Lemma durable_le_length (L : log) : durable_upto L <= length L.
Proof. destruct (dur_scan_inv L) as [[H _] E]. unfold durable_upto. lia. Qed.

Definition nosync (e : io irec) : Prop :=
  match e with IoSyncBegin | IoSyncEnd _ => False | _ => True end.

Lemma nosync_scan (L : log) e : nosync e ->
  pending_begin (L ++ [e]) = pending_begin L /\ durable_upto (L ++ [e]) = durable_upto L.
Proof.
  intros H. unfold pending_begin, durable_upto. rewrite dur_scan_snoc.
  destruct (dur_scan L) as [[pos beg] dur]. destruct e; cbn in *; try tauto.
Qed.

Lemma sync_begin_scan (L : log) :
  pending_begin (L ++ [IoSyncBegin]) = Some (length L) /\ durable_upto (L ++ [IoSyncBegin]) = durable_upto L.
Proof.
  unfold pending_begin, durable_upto. rewrite dur_scan_snoc.
  pose proof (proj2 (dur_scan_inv L)) as E.
  destruct (dur_scan L) as [[pos beg] dur]. cbn in *. subst. auto.
Qed.

Lemma sync_end_scan (L : log) ok :
  pending_begin (L ++ [IoSyncEnd ok]) = None /\
  (ok = true -> forall b, pending_begin L = Some b -> durable_upto (L ++ [IoSyncEnd ok]) = b).
Proof.
  unfold pending_begin, durable_upto. rewrite dur_scan_snoc.
  destruct (dur_scan L) as [[pos beg] dur]. destruct ok; cbn; split; auto; try discriminate.
  intros _ b Hb. subst. reflexivity.
Qed.

Lemma select_incl {T} (bs : list bool) : forall (xs : list T) x, In x (select bs xs) -> In x xs.
Proof. intros xs x. apply A.select_in. Qed.

Lemma index_writes_in (l : log) s r : In (s, r) (index_writes l) -> In (IoIndex s r) l.
Proof. apply A.index_writes_in. Qed.

Lemma slot_get_in (ws : list (nat * irec)) s : forall acc r,
  slot_get ws s acc = Some r -> acc = Some r \/ exists s', In (s', r) ws.
Proof. intros acc r. apply A.slot_get_in. Qed.

Lemma dir_run_snoc d (l : log) e : dir_run d (l ++ [e]) = dir_step (dir_run d l) e.
Proof. unfold dir_run. rewrite fold_left_app. reflexivity. Qed.

Lemma crash_medium_index (base : medium irec) (l : log) ch :
  m_index (crash_medium base l ch) = m_index base ++ select (c_index ch) (index_writes l).
Proof. unfold crash_medium. destruct (dir_crash _ _ _). reflexivity. Qed.

Lemma crash_medium_state (l : log) ch s :
  m_state (crash_medium medium_empty l ch) = Some s ->
  s = sfile_empty \/ In (IoWriteNew s) l.
Proof.
  apply (A.crash_state_P (fun s => s = sfile_empty \/ In (IoWriteNew s) l)); [left; reflexivity|].
  apply Forall_forall. intros e He st ->. right. exact He.
Qed.

Definition st_seeds (st : pstate) : list N := concat (map bs_seeds (snd st)).

Lemma restore_seeds_prefix alloc init : forall n bl seeds lasts,
  restore_blocks alloc init n = (bl, seeds, lasts) -> exists rest, concat (map bs_seeds init) = seeds ++ rest.
Proof.
  induction init as [|bs rest IH]; intros n bl seeds lasts H; cbn in H.
  - inversion H; subst. exists []. reflexivity.
  - destruct (alloc _ _).
    + destruct (restore_blocks alloc rest (S n)) as [[bl' seeds'] lasts'] eqn:E.
      inversion H; subst. destruct (IH _ _ _ _ E) as [rr Hr]. exists rr. cbn. rewrite Hr, app_assoc. reflexivity.
    + inversion H; subst. eexists. reflexivity.
Qed.

Lemma pbl_new_seeds alloc oldest init s :
  In s (epochSeeds (fst (pbl_new alloc oldest init))) -> In s (concat (map bs_seeds init)).
Proof.
  unfold pbl_new. destruct (restore_blocks alloc init 0) as [[bl seeds] lasts] eqn:E. cbn. intros H.
  destruct (restore_seeds_prefix _ _ _ _ _ _ E) as [rest ->]. apply in_app_iff. auto.
Qed.

Lemma resolve_ref_seed p cut e bfl rs i : resolve_ref p cut e bfl rs = Some i -> In rs (epochSeeds p).
Proof.
  unfold resolve_ref. destruct (ref_to_index e bfl p) as [[[i' sd]|]|] eqn:E; try discriminate.
  destruct (_ <? cut); [discriminate|]. destruct (N.eqb_spec sd rs); [|discriminate]. subst. intros _.
  destruct (A.ref_to_index_spec _ _ _ _ _ E) as (e0 & la & _ & H & _). eapply nth_error_In; eauto.
Qed.

Lemma restart_seeds geo st rs : In rs (epochSeeds (fst (restart geo st))) ->
  exists s, st = Some s /\ In rs (st_seeds (fst s)).
Proof.
  unfold restart. destruct st as [[[oldest bl] h]|].
  - intros H. apply pbl_new_seeds in H. eexists. split; [reflexivity|exact H].
  - intros H. apply pbl_new_seeds in H. cbn in H. contradiction.
Qed.

Lemma firstn_plus {A} (a b : nat) : forall (l : list A), firstn a l ++ firstn b (skipn a l) = firstn (a + b) l.
Proof.
  induction a as [|a IH]; intros l; [reflexivity|].
  destruct l as [|x l]; cbn.
  - destruct b; reflexivity.
  - rewrite IH. reflexivity.
Qed.

Lemma skipn_plus {A} (a b : nat) : forall (l : list A), skipn b (skipn a l) = skipn (a + b) l.
Proof.
  induction a as [|a IH]; intros l; [reflexivity|].
  destruct l as [|x l]; cbn; [destruct b; reflexivity|apply IH].
Qed.

Lemma gps_loop_concat bs : forall lastE synced seeds r, gps_loop bs lastE synced seeds = Ok r ->
  concat (map bs_seeds r) = firstn (synced - lastE) (skipn lastE seeds).
Proof.
  induction bs as [|b bs IH]; intros lastE synced seeds r H; cbn [gps_loop] in H.
  - destruct (Nat.ltb_spec lastE synced) as [Hlt|Hge]; [discriminate|]. inversion H; subst.
    replace (synced - lastE) with 0 by lia. reflexivity.
  - destruct (Nat.ltb_spec lastE synced) as [Hlt|Hge].
    2:{ inversion H; subst. replace (synced - lastE) with 0 by lia. reflexivity. }
    set (last := Nat.min (lastE + b_epochs b) synced) in *.
    destruct (Nat.ltb_spec (length seeds) last) as [Hl|Hl]; [discriminate|].
    destruct (gps_loop bs last synced seeds) as [r'|] eqn:Er; [|discriminate].
    cbn [obind] in H. inversion H; subst r. cbn [map concat bs_seeds].
    rewrite (IH _ _ _ _ Er).
    assert (Hle : lastE <= last) by (unfold last; lia).
    assert (Hle2 : last <= synced) by (unfold last; lia).
    replace (skipn last seeds) with (skipn (last - lastE) (skipn lastE seeds)).
    2:{ rewrite skipn_plus. f_equal. lia. }
    rewrite firstn_plus. f_equal. lia.
Qed.

Lemma gps_seeds_eq p p' st : get_persistent_state p = Ok (p', st) ->
  st_seeds st = firstn (synchronizedEpochs p) (epochSeeds p).
Proof.
  unfold get_persistent_state. destruct (gps_loop _ _ _ _) as [bl|] eqn:E; [|discriminate].
  cbn. intros H. inversion H; subst. unfold st_seeds. cbn [snd].
  rewrite (gps_loop_concat _ _ _ _ _ E). rewrite Nat.sub_0_r. reflexivity.
Qed.

Lemma gps_seeds p p' st s : get_persistent_state p = Ok (p', st) -> In s (st_seeds st) ->
  In s (firstn (synchronizedEpochs p) (epochSeeds p)).
Proof. intros H. rewrite (gps_seeds_eq _ _ _ H). auto. Qed.

Definition rec_ok (ups : list upinfo) (r : irec) : Prop :=
  exists up, nth_error ups (r_up r) = Some up /\ up_key up = r_key r /\ up_off up = r_off r /\
    up_size up = r_size r /\ up_state up = UpFin true /\ up_issued up = up_size up.

(** successfully finalized uploads are never touched again *)
Definition ups_ext (ups ups' : list upinfo) : Prop :=
  forall j u, nth_error ups j = Some u -> up_state u = UpFin true -> nth_error ups' j = Some u.

Definition UI (ups : list upinfo) : Prop :=
  forall k u, nth_error ups k = Some u -> up_state u = UpDone true -> up_issued u = up_size u.

Lemma rec_ok_ext ups ups' r : ups_ext ups ups' -> rec_ok ups r -> rec_ok ups' r.
Proof.
  intros E [up [H1 [H2 [H3 [H4 [H5 H6]]]]]]. exists up. split; [apply E; auto|auto].
Qed.

Lemma rec_ok_same ups r r0 : r_up r = r_up r0 -> r_key r = r_key r0 -> r_off r = r_off r0 ->
  r_size r = r_size r0 -> rec_ok ups r0 -> rec_ok ups r.
Proof.
  intros E1 E2 E3 E4 [up H]. exists up. rewrite E1, E2, E3, E4. exact H.
Qed.

Lemma nth_upd_same {T} (l : list T) f : forall k u, nth_error l k = Some u ->
  nth_error (upd_nth l k f) k = Some (f u).
Proof. intros k u H. rewrite A.nth_error_upd_nth, Nat.eqb_refl, H. reflexivity. Qed.

Lemma nth_upd_other {T} (l : list T) f : forall k j, j <> k -> nth_error (upd_nth l k f) j = nth_error l j.
Proof. intros k j H. rewrite A.nth_error_upd_nth. destruct (Nat.eqb_spec j k); [contradiction|reflexivity]. Qed.

Lemma ups_ext_refl ups : ups_ext ups ups.
Proof. intros j u H _. exact H. Qed.

Lemma ups_ext_app ups x : ups_ext ups (ups ++ [x]).
Proof. intros j u H _. apply nth_snoc_old. exact H. Qed.

Lemma ups_ext_upd ups k u f : nth_error ups k = Some u -> up_state u <> UpFin true ->
  ups_ext ups (upd_nth ups k f).
Proof.
  intros Hk Hs j v Hj Hv. destruct (Nat.eq_dec j k) as [->|Hne].
  - congruence.
  - rewrite nth_upd_other by exact Hne. exact Hj.
Qed.

Lemma UI_app ups x : UI ups -> up_state x <> UpDone true -> UI (ups ++ [x]).
Proof.
  intros H Hx k u Hk Hs. apply nth_snoc in Hk. destruct Hk as [[_ Hk]|[_ ->]]; [eauto|congruence].
Qed.

Lemma UI_upd ups k u f : UI ups -> nth_error ups k = Some u ->
  (up_state (f u) = UpDone true -> up_issued (f u) = up_size (f u)) -> UI (upd_nth ups k f).
Proof.
  intros H Hk Hf j v Hj Hs. destruct (Nat.eq_dec j k) as [->|Hne].
  - rewrite (nth_upd_same _ _ _ _ Hk) in Hj. inversion Hj; subst. auto.
  - rewrite nth_upd_other in Hj by exact Hne. eauto.
Qed.

Definition LC (seeds : list N) (nc ca : nat) (L : log) : Prop :=
  ca <= length L /\
  forall pos slot r, nth_error L pos = Some (IoIndex slot r) -> In (r_seed r) (firstn nc seeds) -> pos < ca.
Definition LY (seeds : list N) (ns : nat) (L : log) : Prop :=
  forall pos slot r, nth_error L pos = Some (IoIndex slot r) -> In (r_seed r) (firstn ns seeds) ->
    pos < durable_upto L.
Definition LW (seeds : list N) (ns : nat) (L : log) : Prop :=
  forall q st h s, nth_error L q = Some (IoWriteNew (st, h)) -> In s (st_seeds st) ->
    In s (firstn ns seeds) /\
    forall pos slot r, nth_error L pos = Some (IoIndex slot r) -> r_seed r = s -> pos < durable_upto (firstn q L).

Definition other_ok (ups : list upinfo) (e : io irec) : Prop :=
  match e with
  | IoData u _ _ _ => forall up, nth_error ups u = Some up -> up_state up <> UpFin true
  | IoIndex _ _ => False
  | IoWriteNew _ => False
  | _ => True
  end.

Lemma LC_app_noindex seeds nc ca L e : (forall s r, e <> IoIndex s r) -> LC seeds nc ca L -> LC seeds nc ca (L ++ [e]).
Proof.
  intros Hni [H1 H2]. split; [rewrite app_length; lia|].
  intros pos slot r H Hin. apply nth_snoc in H. destruct H as [[_ H]|[_ H]]; [eauto|].
  symmetry in H. eapply Hni in H. contradiction.
Qed.

Lemma LY_app_noindex seeds ns L e : (forall s r, e <> IoIndex s r) -> LY seeds ns L -> LY seeds ns (L ++ [e]).
Proof.
  intros Hni HY pos slot r H Hin. apply nth_snoc in H. destruct H as [[_ H]|[_ H]].
  - pose proof (durable_mono L [e]). specialize (HY _ _ _ H Hin). lia.
  - symmetry in H. eapply Hni in H. contradiction.
Qed.

Lemma LW_app_other seeds ns L e : (forall s r, e <> IoIndex s r) -> (forall st, e <> IoWriteNew st) ->
  LW seeds ns L -> LW seeds ns (L ++ [e]).
Proof.
  intros Hni Hnw HW q st h s H Hs. apply nth_snoc in H. destruct H as [[Hq H]|[_ H]];
    [|symmetry in H; eapply Hnw in H; contradiction].
  destruct (HW _ _ _ _ H Hs) as [H1 H2]. split; [exact H1|].
  intros pos slot r Hp Hr. rewrite firstn_snoc by lia.
  apply nth_snoc in Hp. destruct Hp as [[_ Hp]|[_ Hp]]; [eauto|].
  symmetry in Hp. eapply Hni in Hp. contradiction.
Qed.

Definition pclause (sp : ppc) (L : log) (ca : nat) : Prop :=
  match sp with
  | PSyncing _ _ => exists b, pending_begin L = Some b /\ ca <= b
  | PSyncRet _ _ => pending_begin L = None /\ ca <= durable_upto L
  | _ => pending_begin L = None
  end.

Definition in_flight (s : sys) (st : pstate) : Prop :=
  s_r s = RW (WWriting st) \/ exists k, s_p s = PW k (WWriting st).

Record SI (s : sys) (L : log) (seeds : list N) (nc ca ns : nat) : Prop := mkSI {
  si_inv1 : inv1 s;
  si_nodup : NoDup seeds;
  si_le1 : ns <= nc;
  si_le2 : nc <= length seeds;
  si_seeds : exists pre, seeds = pre ++ epochSeeds (s_pbl s) /\
      length pre + synchronizingEpochs (s_pbl s) <= Nat.max nc (length pre) /\
      length pre + synchronizedEpochs (s_pbl s) <= Nat.max ns (length pre);
  si_J : length seeds = nc -> synchronizingEpochs (s_pbl s) = length (epochSeeds (s_pbl s));
  si_P : pclause (s_p s) L ca;
  si_W : forall st, in_flight s st -> forall x, In x (st_seeds st) -> In x (firstn ns seeds)
}.

Definition core_eq (p p' : pbl) : Prop :=
  epochSeeds p' = epochSeeds p /\ synchronizingEpochs p' = synchronizingEpochs p /\
  synchronizedEpochs p' = synchronizedEpochs p.

Lemma core_eq_refl p : core_eq p p.
Proof. repeat split. Qed.

Lemma synced_in_seeds (pre es : list N) synced ns x :
  length pre + synced <= Nat.max ns (length pre) -> In x (firstn synced es) -> In x (firstn ns (pre ++ es)).
Proof.
  intros H Hin. apply in_firstn_nth in Hin. destruct Hin as [j [Hj Hx]].
  eapply nth_in_firstn with (j := length pre + j); [lia|].
  rewrite nth_error_app2 by lia. replace (length pre + j - length pre) with j by lia. exact Hx.
Qed.

Lemma SI_sys s s' L L' seeds nc ca ns : SI s L seeds nc ca ns -> inv1 s' ->
  core_eq (s_pbl s) (s_pbl s') -> pclause (s_p s') L' ca ->
  (forall st, in_flight s' st -> in_flight s st \/ exists p', get_persistent_state (s_pbl s) = Ok (p', st)) ->
  SI s' L' seeds nc ca ns.
Proof.
  intros [H1 H2 H3 H4 H5 H6 H7 H8] I' [E1 [E2 E3]] HP HW. constructor; auto.
  - rewrite E1, E2, E3. exact H5.
  - rewrite E1, E2. exact H6.
  - intros st Hf x Hx. destruct (HW st Hf) as [Hf'|[p' Hg]]; [eauto|].
    destruct H5 as [pre [Hs [_ Hc]]]. rewrite Hs. eapply synced_in_seeds; [exact Hc|].
    eapply gps_seeds; eauto.
Qed.

Lemma SI_log s L L' seeds nc ca ns : pending_begin L' = pending_begin L -> durable_upto L' = durable_upto L ->
  SI s L seeds nc ca ns -> SI s L' seeds nc ca ns.
Proof.
  intros E1 E2 [H1 H2 H3 H4 H5 H6 H7 H8]. constructor; auto.
  unfold pclause in *. rewrite E1, E2. exact H7.
Qed.

Lemma SI_pop s s' L seeds nc ca ns ec : SI s L seeds nc ca ns -> inv1 s' ->
  s_r s' = s_r s -> s_p s' = s_p s ->
  ec <= length (epochSeeds (s_pbl s)) ->
  epochSeeds (s_pbl s') = skipn ec (epochSeeds (s_pbl s)) ->
  synchronizingEpochs (s_pbl s') = (if synchronizingEpochs (s_pbl s) <=? ec then 0 else synchronizingEpochs (s_pbl s) - ec) ->
  synchronizedEpochs (s_pbl s') = (if synchronizedEpochs (s_pbl s) <=? ec then 0 else synchronizedEpochs (s_pbl s) - ec) ->
  SI s' L seeds nc ca ns.
Proof.
  intros [H1 H2 H3 H4 H5 H6 H7 H8] I' Er Ep Hec E1 E2 E3. constructor; auto.
  - destruct H5 as [pre [Hs [Ha Hb]]]. exists (pre ++ firstn ec (epochSeeds (s_pbl s))).
    rewrite E1, E2, E3, app_length, firstn_length, Nat.min_l by exact Hec.
    split; [rewrite <- app_assoc, firstn_skipn; exact Hs|].
    destruct (Nat.leb_spec (synchronizingEpochs (s_pbl s)) ec);
      destruct (Nat.leb_spec (synchronizedEpochs (s_pbl s)) ec); lia.
  - intros Hn. specialize (H6 Hn). rewrite E1, E2, skipn_length.
    destruct (Nat.leb_spec (synchronizingEpochs (s_pbl s)) ec); lia.
  - rewrite Ep. exact H7.
  - intros st Hf. apply H8. unfold in_flight in *. rewrite Er, Ep in Hf. exact Hf.
Qed.

Lemma SI_finalize s s' L seeds seeds' nc ca ns seed : SI s L seeds nc ca ns -> inv1 s' ->
  s_r s' = s_r s -> s_p s' = s_p s ->
  synchronizingEpochs (s_pbl s') = synchronizingEpochs (s_pbl s) ->
  synchronizedEpochs (s_pbl s') = synchronizedEpochs (s_pbl s) ->
  (epochSeeds (s_pbl s') = epochSeeds (s_pbl s) /\ seeds' = seeds) \/
  (epochSeeds (s_pbl s') = epochSeeds (s_pbl s) ++ [seed] /\ seeds' = seeds ++ [seed] /\ ~ In seed seeds) ->
  SI s' L seeds' nc ca ns.
Proof.
  intros [H1 H2 H3 H4 H5 H6 H7 H8] I' Er Ep E2 E3 [[E1 ->]|[E1 [-> Hf]]].
  - constructor; auto.
    + rewrite E1, E2, E3. exact H5.
    + rewrite E1, E2. exact H6.
    + rewrite Ep. exact H7.
    + intros st Hfl. apply H8. unfold in_flight in *. rewrite Er, Ep in Hfl. exact Hfl.
  - constructor; auto.
    + apply A.NoDup_snoc; auto.
    + rewrite app_length. cbn. lia.
    + destruct H5 as [pre [Hs [Ha Hb]]]. exists pre. rewrite E1, E2, E3. split; [|lia].
      rewrite Hs, app_assoc. reflexivity.
    + rewrite app_length. cbn. lia.
    + rewrite Ep. exact H7.
    + intros st Hfl x Hx. eapply in_firstn_mono; [|apply Nat.le_refl].
      eapply H8; eauto. unfold in_flight in *. rewrite Er, Ep in Hfl. exact Hfl.
Qed.

Lemma wsame_core p p' : A.wsame p p' -> core_eq p p'.
Proof. intros (_ & W2 & _ & _ & W5 & W6 & _). repeat split; assumption. Qed.

Lemma pop_core p p' : pop_front p = Ok p' ->
  exists ec, ec <= length (epochSeeds p) /\ epochSeeds p' = skipn ec (epochSeeds p) /\
    synchronizingEpochs p' = (if synchronizingEpochs p <=? ec then 0 else synchronizingEpochs p - ec) /\
    synchronizedEpochs p' = (if synchronizedEpochs p <=? ec then 0 else synchronizedEpochs p - ec).
Proof.
  unfold pop_front. destruct (blocks p) as [|b rest]; [discriminate|].
  destruct (nc_unblock _ _) as [[rw h1]|]; [|discriminate]. cbn [obind].
  destruct (Nat.ltb_spec (length (epochSeeds p)) (b_epochs b)); [discriminate|]. cbn [orb].
  destruct (_ <? _); [discriminate|].
  destruct (_ =? _); [destruct (nc_block _ _)|]; intros Hx; inversion Hx; subst; cbn;
    exists (b_epochs b); repeat split; auto.
Qed.

Lemma put_finalize_core tok blk size seed p p' fr : pbl_inv p ->
  put_finalize tok blk size seed p = Ok (p', fr) ->
  synchronizingEpochs p' = synchronizingEpochs p /\ synchronizedEpochs p' = synchronizedEpochs p /\
  ((epochSeeds p' = epochSeeds p /\ forall o, fr = FinOk o -> length (epochSeeds p) <> synchronizingEpochs p) \/
   epochSeeds p' = epochSeeds p ++ [seed]) /\
  (forall o, fr = FinOk o -> blk <> None).
Proof.
  intros I H. destruct (A.put_finalize_cases _ _ _ _ _ _ _ H)
    as [[-> Hn]|(abs & off & -> & -> & -> & _ & _ & _ & [(-> & Hne & _)|(pw & h1 & ->)])]; cbn.
  - repeat split; auto; [left; split; auto|]; intros o Ho; destruct (Hn _ Ho).
  - repeat split; auto; [|discriminate]. left. split; [reflexivity|]. intros o _. rewrite <- (i_len _ I). exact Hne.
  - repeat split; auto. discriminate.
Qed.

Lemma rstep_facts cfg a s s' : rstep cfg a s = Some (Ok s') ->
  core_eq (s_pbl s) (s_pbl s') /\ s_p s' = s_p s /\
  forall st, s_r s' = RW (WWriting st) -> exists p', get_persistent_state (s_pbl s) = Ok (p', st).
Proof.
  unfold rstep. destruct (s_r s) as [|ch|w].
  - intros H; inversion H; subst. cbn. repeat split; auto. intros; discriminate.
  - destruct (is_closed _ _); [|discriminate]. intros H; inversion H; subst. cbn.
    repeat split; auto. intros; discriminate.
  - destruct (wstep cfg TR w a s) as [[[s1 [w'|]]|]|] eqn:E; try discriminate.
    + destruct (A.wstep_effect _ _ _ _ _ _ _ E) as (_ & H2 & H3 & H1 & H4). apply wsame_core in H1.
      intros H; inversion H; subst. cbn. repeat split; auto; try apply H1.
      intros st Hst. inversion Hst; subst. eauto.
    + destruct (A.wstep_effect _ _ _ _ _ _ _ E) as (_ & H2 & H3 & H1 & H4). apply wsame_core in H1.
      intros H; inversion H; subst. cbn. repeat split; auto; try apply H1. intros; discriminate.
Qed.

Lemma nsc_fields p : epochSeeds (notify_sync_completed p) = epochSeeds p /\
  synchronizingEpochs (notify_sync_completed p) = synchronizingEpochs p /\
  synchronizedEpochs (notify_sync_completed p) = synchronizingEpochs p.
Proof.
  unfold notify_sync_completed. destruct (_ =? _); [destruct (nc_block _ _)|]; cbn; auto.
Qed.

Definition last_seed (p : pbl) : option N := nth_error (epochSeeds p) (length (epochSeeds p) - 1).

Lemma index_to_ref_seed i p ref sd : index_to_ref i p = Ok (ref, sd) -> last_seed p = Some sd.
Proof.
  destruct ref as [ep bfl]. intros H. destruct (A.index_to_ref_spec _ _ _ _ _ H) as (le & la & E & _ & E2 & _).
  unfold last_seed. rewrite E. replace (S le - 1) with le by lia. exact E2.
Qed.

Lemma mk_rec_facts p i key off size up r : mk_rec p i key off size up = Some r ->
  r_key r = key /\ r_off r = off /\ r_size r = size /\ r_up r = up /\ last_seed p = Some (r_seed r).
Proof.
  unfold mk_rec. destruct (index_to_ref i p) as [[[e bfl] sd]|] eqn:E; [|discriminate].
  intros H; inversion H; subst. cbn. repeat split; auto. eapply index_to_ref_seed; eauto.
Qed.

Lemma in_flight_frame s s' st : s_r s' = s_r s -> s_p s' = s_p s -> in_flight s' st -> in_flight s st.
Proof. unfold in_flight. intros -> ->. auto. Qed.

Lemma SI_env s s' L seeds nc ca ns : SI s L seeds nc ca ns -> inv1 s' ->
  s_r s' = s_r s -> s_p s' = s_p s -> core_eq (s_pbl s) (s_pbl s') -> SI s' L seeds nc ca ns.
Proof.
  intros HS I' Er Ep Hc. eapply SI_sys; [exact HS|exact I'|exact Hc| |].
  - rewrite Ep. apply (si_P _ _ _ _ _ _ HS).
  - intros st Hf. left. eapply in_flight_frame; eauto.
Qed.

Lemma fresh_not_in c seed : fresh c seed = true -> ~ In seed (cs_seeds c).
Proof. intros H. apply (A.fresh_seeds _ _ H). Qed.

Lemma writing_in_flight s st : writing s = Some st -> in_flight s st.
Proof.
  unfold writing, in_flight.
  destruct (s_r s) as [| |[| |st'| |]]; try (intros H; inversion H; subst; left; reflexivity);
    (destruct (s_p s) as [| | | | | | | |k [| |st'| |]|]; try discriminate;
     intros H; inversion H; subst; right; eexists; reflexivity).
Qed.

Lemma NoDup_firstn {A} n : forall (l : list A), NoDup l -> NoDup (firstn n l).
Proof.
  induction n as [|n IH]; intros l H; [constructor|].
  destruct l as [|x l]; [constructor|]. cbn. inversion H; subst. constructor; [|auto].
  intros Hin. apply H2. clear - Hin. revert n Hin. induction l as [|y l IHl]; intros [|n] Hin; cbn in *; try contradiction.
  destruct Hin; [auto|right; eauto].
Qed.

Lemma NoDup_app_l {A} (l1 l2 : list A) : NoDup (l1 ++ l2) -> NoDup l1.
Proof.
  induction l1 as [|x l1 IH]; cbn; intros H; [constructor|].
  inversion H; subst. constructor; [|auto]. intros Hin. apply H2. apply in_app_iff. auto.
Qed.

Lemma NoDup_app_r {A} (l1 l2 : list A) : NoDup (l1 ++ l2) -> NoDup l2.
Proof. induction l1 as [|x l1 IH]; cbn; intros H; [exact H|]. inversion H; auto. Qed.

Lemma gps_nodup p p' st : get_persistent_state p = Ok (p', st) -> NoDup (epochSeeds p) -> NoDup (st_seeds st).
Proof. intros H Hn. rewrite (gps_seeds_eq _ _ _ H). apply NoDup_firstn. exact Hn. Qed.

Lemma restart_seeds_prefix geo st :
  match st with
  | Some s => exists rest, st_seeds (fst s) = epochSeeds (fst (restart geo st)) ++ rest
  | None => epochSeeds (fst (restart geo st)) = []
  end.
Proof.
  unfold restart. destruct st as [[[oldest bl] h]|]; [|reflexivity].
  unfold pbl_new. destruct (restore_blocks _ bl 0) as [[bl' seeds] lasts] eqn:E. cbn.
  unfold st_seeds. cbn. eapply restore_seeds_prefix; eauto.
Qed.

Lemma restart_sync_fields geo st :
  synchronizingEpochs (fst (restart geo st)) = length (epochSeeds (fst (restart geo st))) /\
  synchronizedEpochs (fst (restart geo st)) = length (epochSeeds (fst (restart geo st))).
Proof.
  unfold restart. destruct st as [[[oldest bl] h]|]; unfold pbl_new.
  - destruct (restore_blocks _ bl 0) as [[bl' seeds] lasts]. cbn. auto.
  - cbn. auto.
Qed.

Lemma restart_inv1 geo st t0 : inv1 (init_sys (fst (restart geo st)) t0).
Proof. unfold restart. destruct st as [[[oldest bl] h]|]; apply init_inv1. Qed.

Section Gen.
  Variable Back : irec -> Prop.
  Hypothesis Back_same : forall r r0, r_key r = r_key r0 -> r_off r = r_off r0 -> r_size r = r_size r0 ->
    Back r0 -> Back r.
  Variable old : list N.
  Variable sd0 : list N.

  Definition native (ups : list upinfo) (L : log) (pos : nat) (r : irec) : Prop :=
    rec_ok ups r /\ forall q l lo hi, nth_error L q = Some (IoData (r_up r) l lo hi) -> q < pos.
  Definition LR (ups : list upinfo) (L : log) : Prop :=
    forall pos slot r, nth_error L pos = Some (IoIndex slot r) -> native ups L pos r \/ Back r.
  Definition LT (ups : list upinfo) (tbl : list (nat * irec)) (seeds : list N) : Prop :=
    forall slot r, In (slot, r) tbl -> In (r_seed r) seeds -> rec_ok ups r \/ Back r.
  Definition TS (tbl : list (nat * irec)) (seeds : list N) : Prop :=
    forall slot r, In (slot, r) tbl -> In (r_seed r) old \/ In (r_seed r) seeds.
  Definition LN (L : log) : Prop :=
    forall pos slot r, nth_error L pos = Some (IoIndex slot r) -> ~ In (r_seed r) sd0.
  Definition WN (L : log) : Prop :=
    forall q st h, nth_error L q = Some (IoWriteNew (st, h)) -> NoDup (st_seeds st).

  Record LI (L : log) (ups : list upinfo) (tbl : list (nat * irec)) (seeds : list N) (nc ca ns : nat) : Prop :=
    mkLI {
      li_R : LR ups L;
      li_T : LT ups tbl seeds;
      li_S : TS tbl seeds;
      li_C : LC seeds nc ca L;
      li_Y : LY seeds ns L;
      li_W : LW seeds ns L;
      li_N : LN L;
      li_D : WN L
    }.

  Lemma LI_ups L ups ups' tbl seeds nc ca ns : ups_ext ups ups' ->
    LI L ups tbl seeds nc ca ns -> LI L ups' tbl seeds nc ca ns.
  Proof.
    intros X [HR HT HS HC HY HW HN HD]. constructor; auto.
    - intros pos slot r H. destruct (HR _ _ _ H) as [[H1 H2]|H1]; [left|right; exact H1].
      split; [eapply rec_ok_ext; eauto|exact H2].
    - intros slot r H Hs. destruct (HT _ _ H Hs) as [H1|H1]; [left; eapply rec_ok_ext; eauto|right; exact H1].
  Qed.

  Lemma LI_seeds L ups tbl seeds x nc ca ns : nc <= length seeds -> ns <= nc ->
    ~ In x seeds -> ~ In x old ->
    LI L ups tbl seeds nc ca ns -> LI L ups tbl (seeds ++ [x]) nc ca ns.
  Proof.
    intros H1 H2 Hx1 Hx2 [HR HT HS HC HY HW HN HD]. constructor; auto.
    - intros slot r H Hs. apply in_app_iff in Hs. destruct Hs as [Hs|[Hs|[]]]; [exact (HT _ _ H Hs)|].
      exfalso. destruct (HS _ _ H) as [Ho|Ho]; rewrite <- Hs in Ho; contradiction.
    - intros slot r H. destruct (HS _ _ H) as [Ho|Ho]; [left; exact Ho|right; apply in_app_iff; left; exact Ho].
    - unfold LC in *. rewrite firstn_app_le by lia. exact HC.
    - unfold LY in *. rewrite firstn_app_le by lia. exact HY.
    - unfold LW in *. rewrite firstn_app_le by lia. exact HW.
  Qed.

  Lemma LR_app_noindex ups L e :
    (forall s r, e <> IoIndex s r) ->
    (forall u l lo hi, e = IoData u l lo hi -> forall up, nth_error ups u = Some up -> up_state up <> UpFin true) ->
    LR ups L -> LR ups (L ++ [e]).
  Proof.
    intros Hni Hd HR pos slot r H. apply nth_snoc in H.
    destruct H as [[Hp H]|[_ H]]; [|symmetry in H; eapply Hni in H; contradiction].
    destruct (HR _ _ _ H) as [[H1 H2]|H1]; [left|right; exact H1]. split; [exact H1|].
    intros q l lo hi Hq. apply nth_snoc in Hq. destruct Hq as [[_ Hq]|[_ Hq]]; [eauto|].
    exfalso. destruct H1 as [up [Hu [_ [_ [_ [Hs _]]]]]]. symmetry in Hq. eapply Hd; eauto.
  Qed.

  Lemma LN_app_noindex L e : (forall s r, e <> IoIndex s r) -> LN L -> LN (L ++ [e]).
  Proof.
    intros Hni HN pos slot r H. apply nth_snoc in H. destruct H as [[_ H]|[_ H]]; [eauto|].
    symmetry in H. eapply Hni in H. contradiction.
  Qed.

  Lemma WN_app_nowrite L e : (forall st, e <> IoWriteNew st) -> WN L -> WN (L ++ [e]).
  Proof.
    intros Hnw HD q st h H. apply nth_snoc in H. destruct H as [[_ H]|[_ H]]; [eauto|].
    symmetry in H. eapply Hnw in H. contradiction.
  Qed.

  Lemma LI_app_other L ups tbl seeds nc ca ns e : other_ok ups e ->
    LI L ups tbl seeds nc ca ns -> LI (L ++ [e]) ups tbl seeds nc ca ns.
  Proof.
    intros Ho [HR HT HS HC HY HW HN HD].
    assert (Hni : forall s r, e <> IoIndex s r) by (intros s r ->; exact Ho).
    assert (Hnw : forall st, e <> IoWriteNew st) by (intros st ->; exact Ho).
    constructor; auto.
    - apply LR_app_noindex; auto. intros u l lo hi ->. exact Ho.
    - apply LC_app_noindex; auto.
    - apply LY_app_noindex; auto.
    - apply LW_app_other; auto.
    - apply LN_app_noindex; auto.
    - apply WN_app_nowrite; auto.
  Qed.

  Lemma LI_app_write L ups tbl seeds nc ca ns st h :
    (forall s, In s (st_seeds st) -> In s (firstn ns seeds)) -> NoDup (st_seeds st) ->
    LI L ups tbl seeds nc ca ns -> LI (L ++ [IoWriteNew (st, h)]) ups tbl seeds nc ca ns.
  Proof.
    intros Hst Hnd [HR HT HS HC HY HW HN HD].
    assert (Hni : forall s r, IoWriteNew (st, h) <> @IoIndex irec s r) by (intros; discriminate).
    constructor; auto.
    - apply LR_app_noindex; auto. intros; discriminate.
    - apply LC_app_noindex; auto.
    - apply LY_app_noindex; auto.
    - intros q st' h' s H Hs. apply nth_snoc in H. destruct H as [[Hq H]|[Hq H]].
      + destruct (HW _ _ _ _ H Hs) as [H1 H2]. split; [exact H1|].
        intros pos slot r Hp Hr. rewrite firstn_snoc by lia.
        apply nth_snoc in Hp. destruct Hp as [[_ Hp]|[_ Hp]]; [eauto|discriminate].
      + inversion H; subst st' h'. split; [auto|].
        intros pos slot r Hp Hr. subst q. rewrite firstn_snoc by lia. rewrite firstn_all.
        apply nth_snoc in Hp. destruct Hp as [[_ Hp]|[_ Hp]]; [|discriminate].
        eapply HY; eauto. subst s. auto.
    - apply LN_app_noindex; auto.
    - intros q st' h' H. apply nth_snoc in H. destruct H as [[_ H]|[_ H]]; [eauto|].
      inversion H; subst. exact Hnd.
  Qed.

  Lemma LI_app_index L ups tbl seeds nc ca ns slot r :
    rec_ok ups r \/ Back r -> ~ In (r_seed r) (firstn nc seeds) -> ns <= nc ->
    ~ In (r_seed r) sd0 -> In (r_seed r) seeds ->
    LI L ups tbl seeds nc ca ns -> LI (L ++ [IoIndex slot r]) ups (tbl ++ [(slot, r)]) seeds nc ca ns.
  Proof.
    intros Hok Hnin Hle Hn0 Hin [HR HT HS HC HY HW HN HD].
    assert (Hnin' : ~ In (r_seed r) (firstn ns seeds)) by (intros H; apply Hnin; eapply in_firstn_le; eauto).
    destruct (nosync_scan L (IoIndex slot r) I) as [_ Ed].
    constructor.
    - intros pos slot' r' H. apply nth_snoc in H. destruct H as [[Hp H]|[Hp H]].
      + destruct (HR _ _ _ H) as [[H1 H2]|H1]; [left|right; exact H1]. split; [exact H1|].
        intros q l lo hi Hq. apply nth_snoc in Hq. destruct Hq as [[_ Hq]|[_ Hq]]; [eauto|discriminate].
      + inversion H; subst slot' r'. destruct Hok as [Hok|Hok]; [left|right; exact Hok]. split; [exact Hok|].
        intros q l lo hi Hq. apply nth_snoc in Hq. destruct Hq as [[Hq _]|[_ Hq]]; [lia|discriminate].
    - intros slot' r' H Hs. apply in_app_iff in H. destruct H as [H|[H|[]]]; [exact (HT _ _ H Hs)|].
      inversion H; subst. exact Hok.
    - intros slot' r' H. apply in_app_iff in H. destruct H as [H|[H|[]]]; [exact (HS _ _ H)|].
      inversion H; subst. right. exact Hin.
    - destruct HC as [H1 H2]. split; [rewrite app_length; lia|].
      intros pos slot' r' H Hi. apply nth_snoc in H. destruct H as [[_ H]|[_ H]]; [eauto|].
      inversion H; subst. contradiction.
    - intros pos slot' r' H Hi. rewrite Ed. apply nth_snoc in H. destruct H as [[_ H]|[_ H]]; [eauto|].
      inversion H; subst. contradiction.
    - intros q st h s H Hs. apply nth_snoc in H. destruct H as [[Hq H]|[_ H]]; [|discriminate].
      destruct (HW _ _ _ _ H Hs) as [H1 H2]. split; [exact H1|].
      intros pos slot' r' Hp Hr. rewrite firstn_snoc by lia.
      apply nth_snoc in Hp. destruct Hp as [[_ Hp]|[_ Hp]]; [eauto|].
      inversion Hp; subst. contradiction.
    - intros pos slot' r' H. apply nth_snoc in H. destruct H as [[_ H]|[_ H]]; [eauto|].
      inversion H; subst. exact Hn0.
    - apply WN_app_nowrite; [intros; discriminate|exact HD].
  Qed.

  Lemma LI_notify L ups tbl seeds nc ca ns :
    LI L ups tbl seeds nc ca ns -> LI L ups tbl seeds (length seeds) (length L) ns.
  Proof.
    intros [HR HT HS HC HY HW HN HD]. constructor; auto.
    split; [lia|]. intros pos slot r H _. eapply nth_lt; eauto.
  Qed.

  Lemma LI_complete L ups tbl seeds nc ca ns : ns <= nc -> ca <= durable_upto L ->
    LI L ups tbl seeds nc ca ns -> LI L ups tbl seeds nc ca nc.
  Proof.
    intros Hle Hd [HR HT HS HC HY HW HN HD]. constructor; auto.
    - intros pos slot r H Hin. destruct HC as [_ HC]. specialize (HC _ _ _ H Hin). lia.
    - intros q st h s H Hs. destruct (HW _ _ _ _ H Hs) as [H1 H2]. split; [|exact H2].
      eapply in_firstn_le; eauto.
  Qed.

  Definition FN (s : sys) : Prop := forall st, in_flight s st -> NoDup (st_seeds st).

  Lemma SI_nodup_pbl s L seeds nc ca ns : SI s L seeds nc ca ns -> NoDup (epochSeeds (s_pbl s)).
  Proof.
    intros HS. destruct (si_seeds _ _ _ _ _ _ HS) as [pre [Hx _]].
    pose proof (si_nodup _ _ _ _ _ _ HS) as Hn. rewrite Hx in Hn. eapply NoDup_app_r; eauto.
  Qed.

  Lemma FN_sys s s' L seeds nc ca ns : SI s L seeds nc ca ns -> FN s ->
    (forall st, in_flight s' st -> in_flight s st \/ exists p', get_persistent_state (s_pbl s) = Ok (p', st)) ->
    FN s'.
  Proof.
    intros HS HF HW st Hf. destruct (HW st Hf) as [H|[p' H]]; [auto|].
    eapply gps_nodup; eauto. eapply SI_nodup_pbl; eauto.
  Qed.

  Lemma FN_frame s s' : s_r s' = s_r s -> s_p s' = s_p s -> FN s -> FN s'.
  Proof. intros Er Ep HF st Hf. apply HF. eapply in_flight_frame; eauto. Qed.

  Definition P0 (seeds : list N) (nc : nat) : Prop :=
    firstn (length sd0) seeds = sd0 /\ length sd0 <= nc /\
    forall x, In x seeds -> In x old -> In x sd0.

  Lemma P0_len seeds nc : P0 seeds nc -> length sd0 <= length seeds.
  Proof.
    intros [H _]. pose proof (f_equal (@length _) H) as Hl. rewrite firstn_length in Hl. lia.
  Qed.

  Lemma P0_snoc seeds nc x : P0 seeds nc -> ~ In x old -> P0 (seeds ++ [x]) nc.
  Proof.
    intros H Hx. pose proof (P0_len _ _ H) as Hl. destruct H as [H1 [H2 H3]]. split; [|split; [exact H2|]].
    - rewrite firstn_app_le by exact Hl. exact H1.
    - intros y Hy Ho. apply in_app_iff in Hy. destruct Hy as [Hy|[Hy|[]]]; [auto|]. subst. contradiction.
  Qed.

  Lemma P0_nc seeds nc nc' : P0 seeds nc -> length sd0 <= nc' -> P0 seeds nc'.
  Proof. intros [H1 [H2 H3]] H. split; [exact H1|split; [exact H|exact H3]]. Qed.

  Lemma P0_not_in seeds nc x : P0 seeds nc -> ~ In x (firstn nc seeds) -> ~ In x sd0.
  Proof.
    intros [H1 [H2 _]] Hn Hin. apply Hn. rewrite <- H1 in Hin. eapply in_firstn_le; eauto.
  Qed.

  Ltac tp_simple HS HL HF Ep :=
    split; [eapply SI_sys;
            [exact HS|assumption|apply core_eq_refl
            |let HP := fresh "HP" in pose proof (si_P _ _ _ _ _ _ HS) as HP; rewrite Ep in HP; exact HP
            |let st := fresh "st" in let Hf := fresh "Hf" in let k := fresh "k" in
             intros st [Hf|[k Hf]]; [left; left; exact Hf|discriminate Hf]]
           |split; [exact HL|
              let st := fresh "st" in let Hf := fresh "Hf" in let k := fresh "k" in
              intros st [Hf|[k Hf]]; [apply HF; left; exact Hf|discriminate Hf]]].

  Lemma tp_step_inv cfg a s s' L ups tbl seeds nc ca ns :
    pstep cfg a s = Some (Ok s') -> inv1 s' -> SI s L seeds nc ca ns -> LI L ups tbl seeds nc ca ns -> FN s ->
    SI s' (if p_syncing s then L ++ [IoSyncEnd (a_ok a)] else if p_syncing s' then L ++ [IoSyncBegin] else L)
          seeds (if p_notifies s then length seeds else nc) (if p_notifies s then length L else ca)
          (if p_completes s then nc else ns) /\
    LI (if p_syncing s then L ++ [IoSyncEnd (a_ok a)] else if p_syncing s' then L ++ [IoSyncBegin] else L)
       ups tbl seeds (if p_notifies s then length seeds else nc) (if p_notifies s then length L else ca)
       (if p_completes s then nc else ns) /\
    FN s'.
  Proof.
    intros Hs I' HS HL HF. unfold pstep in Hs. unfold p_notifies, p_completes.
    change (p_syncing s) with (match s_p s with PSyncing _ _ => true | _ => false end).
    assert (HFl : forall s1, s_r s1 = s_r s -> (forall k st, s_p s1 <> PW k (WWriting st)) -> FN s1).
    { intros s1 Er Hp st [Hf|[k Hf]]; [apply HF; left; rewrite <- Er; exact Hf|exfalso; eapply Hp; eauto]. }
    destruct (s_p s) as [|ch|ch|dl|keep|keep final|keep final|keep final dl|keep w|] eqn:Ep.
    - (* PStart *) inversion Hs; subst s'. cbn. tp_simple HS HL HF Ep.
    - (* PSelect *) destruct (is_closed _ _); inversion Hs; subst s'; cbn; tp_simple HS HL HF Ep.
    - (* PIdle *)
      destruct (s_cancel s && _); [|destruct (is_closed _ _); [|discriminate]];
        inversion Hs; subst s'; cbn; tp_simple HS HL HF Ep.
    - (* PTimer *)
      destruct (s_cancel s && _); [|destruct (_ && _)%bool; [|discriminate]];
        inversion Hs; subst s'; cbn; tp_simple HS HL HF Ep.
    - (* PNotify *)
      inversion Hs; subst s'. cbn.
      destruct (sync_begin_scan L) as [Eb Ed].
      split; [|split].
      + destruct HS as [H1 H2 H3 H4 H5 H6 H7 H8]. constructor; cbn; auto; try lia.
        * destruct H5 as [pre [Hx [Ha Hb]]]. exists pre. split; [exact Hx|].
          pose proof (f_equal (@length _) Hx) as Hlen. rewrite app_length in Hlen.
          split; [|exact Hb]. lia.
        * exists (length L). split; [exact Eb|lia].
        * intros st [Hf|[k Hf]]; [|discriminate Hf]. apply H8. left. exact Hf.
      + apply LI_app_other; [exact I|]. eapply LI_notify; eauto.
      + apply HFl; [reflexivity|intros; discriminate].
    - (* PSyncing *)
      pose proof (si_P _ _ _ _ _ _ HS) as HP. rewrite Ep in HP. destruct HP as [b [Hb Hc]].
      destruct (sync_end_scan L (a_ok a)) as [En Ed].
      split; [|split; [apply LI_app_other; [exact I|exact HL]|]].
      + destruct (a_ok a) eqn:Ea; inversion Hs; subst s'.
        * eapply SI_sys; [exact HS|assumption|apply core_eq_refl| |].
          -- cbn. split; [exact En|]. rewrite (Ed eq_refl _ Hb). exact Hc.
          -- intros st [Hf|[k Hf]]; [left; left; exact Hf|discriminate Hf].
        * eapply SI_sys; [exact HS|assumption|apply core_eq_refl| |].
          -- cbn. exact En.
          -- intros st [Hf|[k Hf]]; [left; left; exact Hf|discriminate Hf].
      + destruct (a_ok a); inversion Hs; subst s'; (apply HFl; [reflexivity|intros; discriminate]).
    - (* PSyncRet *)
      pose proof (si_P _ _ _ _ _ _ HS) as HP. rewrite Ep in HP. destruct HP as [Hn Hc].
      destruct (nsc_fields (s_pbl s)) as [F1 [F2 F3]].
      destruct (sync_begin_scan L) as [Eb Ed].
      pose proof (si_le1 _ _ _ _ _ _ HS) as Hle.
      destruct (negb keep && negb final) eqn:Ek; inversion Hs; subst s'; cbn [p_syncing s_p with_p with_pbl].
      + split; [|split].
        * destruct HS as [H1 H2 H3 H4 H5 H6 H7 H8]. constructor;
            cbn [s_pbl s_p with_p with_pbl notify_sync_starting epochSeeds synchronizingEpochs synchronizedEpochs pclause];
            auto; try lia.
          -- destruct H5 as [pre [Hx [Ha Hb]]]. exists pre. rewrite F1, F3. split; [exact Hx|].
             pose proof (f_equal (@length _) Hx) as Hlen. rewrite app_length in Hlen.
             split; [|exact Ha]. lia.
          -- exists (length L). split; [exact Eb|lia].
          -- intros st [Hf|[k Hf]]; [|discriminate Hf]. intros x Hx.
             eapply in_firstn_le; [|exact H3]. eapply H8; [left; exact Hf|exact Hx].
        * apply LI_app_other; [exact I|]. eapply LI_notify. eapply LI_complete; eauto.
        * apply HFl; [reflexivity|intros; discriminate].
      + split; [|split; [eapply LI_complete; eauto|]].
        * destruct HS as [H1 H2 H3 H4 H5 H6 H7 H8]. constructor;
            cbn [s_pbl s_p with_p with_pbl notify_sync_starting epochSeeds synchronizingEpochs synchronizedEpochs pclause];
            auto; try lia.
          -- destruct H5 as [pre [Hx [Ha Hb]]]. exists pre. rewrite F1, F2, F3. split; [exact Hx|]. lia.
          -- rewrite F1, F2. exact H6.
          -- intros st [Hf|[k Hf]]; [|discriminate Hf]. intros x Hx.
             eapply in_firstn_le; [|exact H3]. eapply H8; [left; exact Hf|exact Hx].
        * apply HFl; [reflexivity|]. intros k st. destruct keep, final; cbn; discriminate.
    - (* PSyncSleep *)
      destruct (_ <=? _)%N; [|discriminate]. inversion Hs; subst s'. cbn.
      destruct (sync_begin_scan L) as [Eb Ed].
      split; [|split; [apply LI_app_other; [exact I|exact HL]|]].
      + eapply SI_sys; [exact HS|assumption|apply core_eq_refl| |].
        * cbn. exists (length L). split; [exact Eb|]. apply (proj1 (li_C _ _ _ _ _ _ _ HL)).
        * intros st [Hf|[k Hf]]; [left; left; exact Hf|discriminate Hf].
      + apply HFl; [reflexivity|intros; discriminate].
    - (* PW *)
      pose proof (si_P _ _ _ _ _ _ HS) as HP. rewrite Ep in HP. cbn in HP.
      destruct (wstep cfg TP w a s) as [[[s1 [w'|]]|]|] eqn:E; try discriminate;
        destruct (A.wstep_effect _ _ _ _ _ _ _ E) as (_ & C2 & C3 & C1 & C4); apply wsame_core in C1; inversion Hs; subst s'.
      + cbn.
        assert (HW : forall st, in_flight (with_p s1 (PW keep w')) st ->
                  in_flight s st \/ exists p', get_persistent_state (s_pbl s) = Ok (p', st)).
        { intros st [Hf|[k Hf]].
          - left. left. cbn in Hf. rewrite C2 in Hf. exact Hf.
          - right. cbn in Hf. inversion Hf; subst. eapply C4; eauto. }
        split; [|split; [exact HL|eapply FN_sys; eauto]].
        eapply SI_sys; [exact HS|assumption|exact C1|exact HP|exact HW].
      + assert (Eq : p_syncing (with_p s1 (if keep then PStart else PExit)) = false) by (destruct keep; reflexivity).
        rewrite Eq.
        assert (HW : forall st, in_flight (with_p s1 (if keep then PStart else PExit)) st ->
                  in_flight s st \/ exists p', get_persistent_state (s_pbl s) = Ok (p', st)).
        { intros st [Hf|[k Hf]].
          - left. left. cbn in Hf. rewrite C2 in Hf. exact Hf.
          - cbn in Hf. destruct keep; discriminate Hf. }
        split; [|split; [exact HL|eapply FN_sys; eauto]].
        eapply SI_sys; [exact HS|assumption|exact C1| |exact HW].
        destruct keep; exact HP.
    - discriminate.
  Qed.

  Lemma do_writes_inv p k u ups seeds nc ca ns :
    (forall sd, last_seed p = Some sd -> ~ In sd (firstn nc seeds) /\ ~ In sd sd0 /\ In sd seeds) ->
    (forall r0 i, live_index p r0 = Some i -> In (r_seed r0) seeds) ->
    (forall r, r_up r = k -> r_key r = up_key u -> r_off r = up_off u -> r_size r = up_size u -> rec_ok ups r) ->
    ns <= nc ->
    forall ws L tbl L' tbl', do_writes p k u ws L tbl = Some (L', tbl') ->
    LI L ups tbl seeds nc ca ns ->
    LI L' ups tbl' seeds nc ca ns /\ pending_begin L' = pending_begin L /\ durable_upto L' = durable_upto L.
  Proof.
    intros Hsd Hlive Hnew Hle. induction ws as [|w ws IH]; intros L tbl L' tbl' H HL; cbn [do_writes] in H.
    - inversion H; subst. auto.
    - destruct w as [slot|from to].
      + destruct (_ <? _); [discriminate|].
        destruct (mk_rec _ _ _ _ _ _) as [r|] eqn:Er; [|discriminate].
        destruct (mk_rec_facts _ _ _ _ _ _ _ Er) as [F1 [F2 [F3 [F4 F5]]]].
        destruct (Hsd _ F5) as [S1 [S2 S3]].
        destruct (nosync_scan L (IoIndex slot r) I) as [E1 E2].
        destruct (IH _ _ _ _ H) as [G1 [G2 G3]].
        * apply LI_app_index; auto.
        * split; [exact G1|]. split; congruence.
      + destruct (slot_get tbl from None) as [r0|] eqn:Eg; [|discriminate].
        destruct (live_index p r0) as [i0|] eqn:El; [|discriminate].
        destruct (mk_rec _ _ _ _ _ _) as [r|] eqn:Er; [|discriminate].
        destruct (mk_rec_facts _ _ _ _ _ _ _ Er) as [F1 [F2 [F3 [F4 F5]]]].
        destruct (Hsd _ F5) as [S1 [S2 S3]].
        destruct (nosync_scan L (IoIndex to r) I) as [E1 E2].
        destruct (IH _ _ _ _ H) as [G1 [G2 G3]].
        * apply LI_app_index; auto.
          apply slot_get_in in Eg. destruct Eg as [Eg|[s' Eg]]; [discriminate|].
          destruct (li_T _ _ _ _ _ _ _ HL _ _ Eg (Hlive _ _ El)) as [Hr|Hr].
          -- left. eapply rec_ok_same; eauto.
          -- right. eapply Back_same; eauto.
        * split; [exact G1|]. split; congruence.
  Qed.

  Definition CI (s : sys) (L : log) (ups : list upinfo) (tbl : list (nat * irec)) (seeds : list N)
                (nc ca ns : nat) : Prop :=
    SI s L seeds nc ca ns /\ UI ups /\ LI L ups tbl seeds nc ca ns /\ P0 seeds nc /\ FN s.

  Definition rcinv (c : cst) : Prop :=
    CI (cs_sys c) (cs_log c) (cs_ups c) (cs_tbl c) (cs_seeds c) (cs_nclosed c) (cs_closed_at c) (cs_nsynced c)
    /\ cs_old c = old.

  Lemma finalize_core s s' L ups tbl seeds nc ca ns k u seed fr ok :
    CI s L ups tbl seeds nc ca ns ->
    inv1 s' -> s_r s' = s_r s -> s_p s' = s_p s ->
    synchronizingEpochs (s_pbl s') = synchronizingEpochs (s_pbl s) ->
    synchronizedEpochs (s_pbl s') = synchronizedEpochs (s_pbl s) ->
    ((epochSeeds (s_pbl s') = epochSeeds (s_pbl s) /\
      forall o, fr = FinOk o -> length (epochSeeds (s_pbl s)) <> synchronizingEpochs (s_pbl s)) \/
     epochSeeds (s_pbl s') = epochSeeds (s_pbl s) ++ [seed]) ->
    ~ In seed seeds -> ~ In seed old ->
    nth_error ups k = Some u -> up_state u = UpDone ok -> (forall o, fr = FinOk o -> ok = true) ->
    forall seeds',
    seeds' = (if length (epochSeeds (s_pbl s)) <? length (epochSeeds (s_pbl s')) then seeds ++ [seed] else seeds) ->
    (forall o ws L' tbl', fr = FinOk o -> do_writes (s_pbl s') k u ws L tbl = Some (L', tbl') ->
       CI s' L' (upd_nth ups k (A.set_state (UpFin true))) tbl' seeds' nc ca ns) /\
    (forall b, CI s' L (upd_nth ups k (A.set_state (UpFin b))) tbl seeds' nc ca ns).
  Proof.
    intros [HS [HU [HL [HP HF]]]] I' Er Ep E2 E3 Hd Hfresh Hfresh2 Hk Hst Hok seeds' Hseeds'.
    assert (HS' : SI s' L seeds' nc ca ns).
    { eapply SI_finalize with (seed := seed); eauto. destruct Hd as [[E1 _]|E1]; rewrite E1 in Hseeds'.
      - rewrite Nat.ltb_irrefl in Hseeds'. left. auto.
      - rewrite app_length in Hseeds'. cbn [length] in Hseeds'.
        replace (_ <? _) with true in Hseeds' by (symmetry; apply Nat.ltb_lt; lia). right. auto. }
    assert (HF' : FN s') by (eapply FN_frame; eauto).
    assert (HP' : P0 seeds' nc).
    { subst seeds'. destruct (_ <? _); [apply P0_snoc; assumption|exact HP]. }
    assert (Hext : forall b, ups_ext ups (upd_nth ups k (A.set_state (UpFin b)))).
    { intros b. eapply ups_ext_upd; [exact Hk|]. rewrite Hst. discriminate. }
    assert (HL' : forall b, LI L (upd_nth ups k (A.set_state (UpFin b))) tbl seeds' nc ca ns).
    { intros b. eapply LI_ups; [apply Hext|]. subst seeds'.
      destruct (_ <? _); [|exact HL].
      apply LI_seeds; [apply (si_le2 _ _ _ _ _ _ HS)|apply (si_le1 _ _ _ _ _ _ HS)|exact Hfresh|exact Hfresh2|exact HL]. }
    assert (HU' : forall b, UI (upd_nth ups k (A.set_state (UpFin b)))).
    { intros b. eapply UI_upd; [exact HU|exact Hk|]. cbn. discriminate. }
    split; [|intros b; split; [exact HS'|split; [apply HU'|split; [apply HL'|split; [exact HP'|exact HF']]]]].
    intros o ws L' tbl' -> Hw.
    specialize (Hok o eq_refl). subst ok.
    destruct (si_seeds _ _ _ _ _ _ HS') as [pre [Hx _]].
    destruct (do_writes_inv (s_pbl s') k u (upd_nth ups k (A.set_state (UpFin true))) seeds' nc ca ns) with (5 := Hw) as [G1 [G2 G3]].
    - (* the seed of new records is not closed *)
      intros sd Hsd. unfold last_seed in Hsd.
      assert (Hpos : length (epochSeeds (s_pbl s')) > 0) by (apply nth_lt in Hsd; lia).
      pose proof (f_equal (@length _) Hx) as Hlen. rewrite app_length in Hlen.
      assert (Hnc : ~ In sd (firstn nc seeds')).
      { apply nodup_not_in_firstn with (i := length seeds' - 1).
        + apply (si_nodup _ _ _ _ _ _ HS').
        + rewrite Hx at 1. rewrite nth_error_app2 by lia.
          replace (length seeds' - 1 - length pre) with (length (epochSeeds (s_pbl s')) - 1) by lia. exact Hsd.
        + pose proof (si_le2 _ _ _ _ _ _ HS) as Hle2.
          destruct Hd as [[E1 Hne]|E1]; rewrite E1 in Hseeds'.
          * rewrite Nat.ltb_irrefl in Hseeds'. subst seeds'.
            specialize (Hne o eq_refl). pose proof (si_J _ _ _ _ _ _ HS) as HJ.
            assert (length seeds <> nc) by (intros Hc; apply Hne; symmetry; apply HJ; exact Hc). lia.
          * rewrite app_length in Hseeds'. cbn [length] in Hseeds'.
            replace (_ <? _) with true in Hseeds' by (symmetry; apply Nat.ltb_lt; lia).
            subst seeds'. rewrite app_length. cbn. lia. }
      split; [exact Hnc|]. split; [eapply P0_not_in; eauto|].
      rewrite Hx. apply in_app_iff. right. eapply nth_error_In; eauto.
    - intros r0 i Hl. unfold live_index in Hl. apply resolve_ref_seed in Hl.
      rewrite Hx. apply in_app_iff. right. exact Hl.
    - intros r R1 R2 R3 R4. exists (A.set_state (UpFin true) u). rewrite R1.
      split; [apply nth_upd_same; exact Hk|]. cbn. repeat split; auto.
      apply (HU _ _ Hk Hst).
    - apply (si_le1 _ _ _ _ _ _ HS).
    - apply HL'.
    - split; [eapply SI_log; eauto|]. split; [apply HU'|]. split; [exact G1|]. split; [exact HP'|exact HF'].
  Qed.

  Lemma CI_env s s' L ups tbl seeds nc ca ns : CI s L ups tbl seeds nc ca ns -> inv1 s' ->
    s_r s' = s_r s -> s_p s' = s_p s -> core_eq (s_pbl s) (s_pbl s') -> CI s' L ups tbl seeds nc ca ns.
  Proof.
    intros [HS [HU [HL [HP HF]]]] I' Er Ep Hc. split; [eapply SI_env; eauto|].
    split; [exact HU|]. split; [exact HL|]. split; [exact HP|eapply FN_frame; eauto].
  Qed.

  Lemma fresh_not_old c seed : fresh c seed = true -> ~ In seed (cs_old c).
  Proof. intros H. apply (A.fresh_seeds _ _ H). Qed.

  Theorem cstep_rcinv g cfg c e c' : rcinv c -> cstep g cfg c e = Some c' -> rcinv c'.
  Proof.
    intros R H. pose proof R as [[HS [HU [HL [HP HF]]]] Ho].
    assert (I' : inv1 (cs_sys c')).
    { destruct (A.cstep_sys _ _ _ _ _ H) as [E|[ev Hs]]; [rewrite E; apply (si_inv1 _ _ _ _ _ _ HS)|].
      destruct (step_inv1 _ _ _ _ (si_inv1 _ _ _ _ _ _ HS) Hs) as [s1 [E [I1 _]]]. inversion E; subst s1. exact I1. }
    apply A.cstep_eff in H. unfold rcinv. A.eff_cases H.
    - (* tick, cancel, push without a block *)
      apply A.obs_fields in Hobs. destruct Hobs as (E1 & E2 & E3 & E4 & E5 & _ & _ & _ & _ & E10 & _).
      destruct Xrest as (_ & T & _ & Sy). apply A.same_sync_fields in Sy. destruct Sy as (Eo & N1 & N2 & N3).
      rewrite E4, E5, T, E10, N1, N2, N3, Eo. split; [|exact Ho].
      eapply CI_env; eauto; [apply R|]. rewrite E1. apply core_eq_refl.
    - (* push *)
      destruct Hpc as [Er Ep]. destruct Hgh as [Esd _].
      apply A.same_sync_fields in Xsync. destruct Xsync as (Eo & N1 & N2 & N3).
      rewrite Hlg, Hu, Xtbl, Esd, N1, N2, N3, Eo. split; [|exact Ho].
      eapply CI_env; eauto; [apply R|]. rewrite Hp. repeat split.
    - (* pop *)
      destruct Hpc as [Er Ep]. destruct Hgh as [Esd _].
      destruct Xrest as (_ & T & _ & Sy). apply A.same_sync_fields in Sy. destruct Sy as (Eo & N1 & N2 & N3).
      rewrite Hlg, Hu, T, Esd, N1, N2, N3, Eo. split; [|exact Ho].
      split; [|split; [exact HU|split; [exact HL|split; [exact HP|eapply FN_frame; eauto]]]].
      destruct (pop_core _ _ Hpop) as [ec [P1 [P2 [P3 P4]]]]. rewrite <- Hp in P2, P3, P4.
      eapply SI_pop; eauto.
    - (* put start *)
      destruct Hpc as [Er Ep]. destruct Hgh as [Esd _].
      apply A.same_sync_fields in Xsync. destruct Xsync as (Eo & N1 & N2 & N3).
      rewrite Hlg, Hu, Xtbl, Esd, N1, N2, N3, Eo. split; [|exact Ho].
      destruct (CI_env _ (cs_sys c') _ _ _ _ _ _ _ (proj1 R) I' Er Ep) as [HS' [HU' [HL' HR]]];
        [rewrite Hp; apply core_eq_refl|].
      assert (Hstate : up_state u = UpDone false \/ up_state u = UpWriting).
      { destruct Xcur as [(_ & _ & _ & St & _)|(_ & St & _)]; auto. }
      split; [exact HS'|]. split; [|split; [eapply LI_ups; [apply ups_ext_app|exact HL']|exact HR]].
      apply UI_app; [exact HU'|]. destruct Hstate as [->| ->]; discriminate.
    - (* data *)
      destruct Hgh as [Esd _].
      destruct Xrest as (_ & T & _ & Sy). apply A.same_sync_fields in Sy. destruct Sy as (Eo & N1 & N2 & N3).
      rewrite Hsys, Hlg, Hu, T, Esd, N1, N2, N3, Eo. split; [|exact Ho].
      match goal with |- CI _ (_ ++ [?e]) _ _ _ _ _ _ => destruct (nosync_scan (cs_log c) e I) as [E1 E2] end.
      split; [eapply SI_log; eauto|]. split; [|split; [|split; [exact HP|exact HF]]].
      + eapply UI_upd; eauto. cbn. rewrite Hst. discriminate.
      + eapply LI_ups; [eapply ups_ext_upd; [exact Hk|rewrite Hst; discriminate]|].
        apply LI_app_other; [|exact HL]. cbn. intros up Hup. rewrite Hk in Hup. inversion Hup; subst. rewrite Hst. discriminate.
    - (* writer done *)
      destruct Hgh as [Esd _].
      destruct Xrest as (_ & T & _ & Sy). apply A.same_sync_fields in Sy. destruct Sy as (Eo & N1 & N2 & N3).
      rewrite Hsys, Hlg, Hu, T, Esd, N1, N2, N3, Eo. split; [|exact Ho].
      split; [exact HS|]. split; [|split; [|split; [exact HP|exact HF]]].
      + eapply UI_upd; eauto. cbn. intros Hx. inversion Hx; subst ok. apply Xok. reflexivity.
      + eapply LI_ups; [eapply ups_ext_upd; [exact Hk|rewrite Hst; discriminate]|exact HL].
    - (* finalize *)
      destruct Hpc as [Er Ep].
      apply A.same_sync_fields in Xsync. destruct Xsync as (Eo & N1 & N2 & N3).
      destruct (put_finalize_core _ _ _ _ _ _ _ (proj1 (si_inv1 _ _ _ _ _ _ HS)) Hpf) as [P1 [P2 [P3 P4]]].
      rewrite <- Hp in P1, P2, P3, Xbump.
      assert (Hno : ~ In seed old) by (rewrite <- Ho; apply fresh_not_old; exact Xfresh).
      destruct (finalize_core _ (cs_sys c') _ _ _ _ _ _ _ k u seed fr ok (proj1 R) I' Er Ep P1 P2 P3
                  (fresh_not_in _ _ Xfresh) Hno Hk Hst) with (seeds' := cs_seeds c') as [G1 G2].
      { intros o Ho'. destruct ok; [reflexivity|]. exfalso. eapply P4; eauto. }
      { rewrite Hsd. destruct (_ <? _); inversion Xbump; rewrite ?app_nil_r; reflexivity. }
      rewrite Hu, N1, N2, N3, Eo. split; [|exact Ho].
      destruct Xws as [(off & -> & -> & Hw)|(_ & -> & -> & ->)].
      + apply (G1 off ws _ _ eq_refl). rewrite Hp. exact Hw.
      + rewrite Hlg, app_nil_r. apply G2.
    - (* thread step *)
      destruct Hgh as [Esd _]. rewrite Hsys, Hlg, Hu, Xtbl, Esd, Xold. rewrite Hsys in I'. split; [|exact Ho].
      unfold A.sync_ghost in Xsg. destruct t; cbn [step] in Hs; injection Xsg as Ex N1 N2 N3; rewrite Ex.
      + rewrite app_nil_r, N1, N2, N3. destruct (rstep_facts _ _ _ _ Hs) as [C1 [C2 C3]].
        assert (HW : forall st, in_flight s' st ->
                  in_flight (cs_sys c) st \/ exists p', get_persistent_state (s_pbl (cs_sys c)) = Ok (p', st)).
        { intros st [Hf|[k Hf]]; [right; eauto|]. left. right. exists k. rewrite <- C2. exact Hf. }
        split; [|split; [exact HU|split; [exact HL|split; [exact HP|eapply FN_sys; eauto]]]].
        eapply SI_sys; [exact HS|exact I'|exact C1| |exact HW].
        rewrite C2. apply (si_P _ _ _ _ _ _ HS).
      + rewrite N1, N2, N3. destruct (tp_step_inv _ _ _ _ _ _ _ _ _ _ _ Hs I' HS HL HF) as [G1 [G2 G3]].
        pose proof (P0_len _ _ HP) as Hlen.
        assert (HP' : P0 (cs_seeds c) (if p_notifies (cs_sys c) then length (cs_seeds c) else cs_nclosed c)).
        { destruct (p_notifies (cs_sys c)); [eapply P0_nc; eauto|exact HP]. }
        assert (El : cs_log c ++ (if p_syncing (cs_sys c) then [IoSyncEnd (a_ok a)]
                                  else if p_syncing s' then [IoSyncBegin] else []) =
                     if p_syncing (cs_sys c) then cs_log c ++ [IoSyncEnd (a_ok a)]
                     else if p_syncing s' then cs_log c ++ [IoSyncBegin] else cs_log c).
        { destruct (p_syncing (cs_sys c)); [|destruct (p_syncing s')]; rewrite ?app_nil_r; reflexivity. }
        rewrite El. split; [exact G1|split; [exact HU|split; [exact G2|split; [exact HP'|exact G3]]]].
    - (* directory operation *)
      destruct Hgh as [Esd _].
      destruct Xrest as (_ & T & _ & Sy). apply A.same_sync_fields in Sy. destruct Sy as (Eo & N1 & N2 & N3).
      rewrite Hsys, Hlg, Hu, T, Esd, N1, N2, N3, Eo. split; [|exact Ho].
      apply writing_in_flight in Hw.
      assert (Hn : nosync (dir_op (cs_dirpc c) (st, g_hinit g))).
      { unfold dir_op. destruct (cs_dirpc c) as [|[|[|[|[|n]]]]]; exact I. }
      destruct (nosync_scan (cs_log c) _ Hn) as [E1 E2].
      split; [eapply SI_log; eauto|]. split; [exact HU|]. split; [|split; [exact HP|exact HF]].
      unfold dir_op. destruct (cs_dirpc c) as [|[|[|[|[|n]]]]]; try (apply LI_app_other; [exact I|exact HL]).
      apply LI_app_write; [|apply HF; exact Hw|exact HL]. apply (si_W _ _ _ _ _ _ HS). exact Hw.
  Qed.

  Lemma crun_rcinv g cfg tr : forall c c', rcinv c -> crun g cfg c tr = Some c' -> rcinv c'.
  Proof. apply (A.crun_inv g cfg rcinv). apply cstep_rcinv. Qed.

  Lemma cinit_rcinv g base t0 :
    sd0 = epochSeeds (fst (restart (geom g) (m_state base))) ->
    old = map (fun e => r_seed (snd e)) (m_index base) ->
    NoDup sd0 ->
    (forall slot r, In (slot, r) (m_index base) -> In (r_seed r) sd0 -> Back r) ->
    rcinv (cinit g base t0).
  Proof.
    intros Esd Eold Hnd Hback. unfold rcinv, cinit.
    cbn [cs_sys cs_log cs_ups cs_tbl cs_seeds cs_nclosed cs_closed_at cs_nsynced cs_old].
    set (p := fst (restart (geom g) (m_state base))) in *.
    destruct (restart_sync_fields (geom g) (m_state base)) as [E2 E3]. fold p in E2, E3.
    rewrite <- Esd.
    assert (Hnil : forall {A} k (x : A), nth_error (@nil A) k = Some x -> False) by (intros A [|k] x Hx; discriminate).
    split; [|symmetry; exact Eold].
    split; [|split; [|split; [|split]]].
    - constructor.
      + apply restart_inv1.
      + exact Hnd.
      + lia.
      + lia.
      + exists []. cbn [s_pbl init_sys app length]. rewrite E2, E3, <- Esd. split; [reflexivity|split; lia].
      + intros _. cbn [s_pbl init_sys]. exact E2.
      + reflexivity.
      + intros st [Hf|[k Hf]]; discriminate Hf.
    - intros k u Hk. exfalso. eapply Hnil; eauto.
    - constructor.
      + intros pos slot r H. exfalso. eapply Hnil; eauto.
      + intros slot r H Hs. right. eauto.
      + intros slot r H. left. rewrite Eold. apply in_map_iff. exists (slot, r). auto.
      + split; [cbn; lia|]. intros pos slot r H. exfalso. eapply Hnil; eauto.
      + intros pos slot r H. exfalso. eapply Hnil; eauto.
      + intros q st h s H. exfalso. eapply Hnil; eauto.
      + intros pos slot r H. exfalso. eapply Hnil; eauto.
      + intros q st h H. exfalso. eapply Hnil; eauto.
    - split; [apply firstn_all|]. split; [lia|]. auto.
    - intros st [Hf|[k Hf]]; discriminate Hf.
  Qed.
End Gen.

Definition cinv : cst -> Prop := rcinv (fun _ => False) [] [].

Lemma cstep_inv g cfg c e c' : cinv c -> cstep g cfg c e = Some c' -> cinv c'.
Proof. apply cstep_rcinv. intros r r0 _ _ _ []. Qed.

Lemma cinit_inv g t0 : cinv (cinit g medium_empty t0).
Proof. apply cinit_rcinv; try reflexivity; [constructor|intros slot r []]. Qed.

Lemma creach_inv g cfg t0 c : creach g cfg medium_empty t0 c -> cinv c.
Proof. intros [tr H]. eapply crun_rcinv; [intros r r0 _ _ _ []|apply cinit_inv|exact H]. Qed.

Theorem record_after_data_before_close g cfg t0 c : creach g cfg medium_empty t0 c ->
  forall p slot r, nth_error (cs_log c) p = Some (IoIndex slot r) ->
    (forall q l lo hi, nth_error (cs_log c) q = Some (IoData (r_up r) l lo hi) -> q < p) /\
    (forall j, j < cs_nclosed c -> nth_error (cs_seeds c) j = Some (r_seed r) -> p < cs_closed_at c).
Proof.
  intros R p slot r H. destruct (creach_inv _ _ _ _ R) as [[_ [_ [HL _]]] _].
  split.
  - destruct (li_R _ _ _ _ _ _ _ _ _ _ HL _ _ _ H) as [[_ HD]|[]]. exact HD.
  - intros j Hj Hn. apply (proj2 (li_C _ _ _ _ _ _ _ _ _ _ HL) _ _ _ H). eapply nth_in_firstn; eauto.
Qed.

Theorem seed_durable_after_sync g cfg t0 c : creach g cfg medium_empty t0 c ->
  forall q st h s, nth_error (cs_log c) q = Some (IoWriteNew (st, h)) ->
    In s (concat (map bs_seeds (snd st))) ->
    forall p slot r, nth_error (cs_log c) p = Some (IoIndex slot r) -> r_seed r = s ->
      p < durable_upto (firstn q (cs_log c)).
Proof.
  intros R q st h s H Hs. destruct (creach_inv _ _ _ _ R) as [[_ [_ [HL _]]] _].
  apply (li_W _ _ _ _ _ _ _ _ _ _ HL _ _ _ _ H Hs).
Qed.

Theorem crash_safe_durable : forall g cfg t0 c, creach g cfg medium_empty t0 c ->
  forall n ch slot r i, resolves g (crash_of medium_empty c n ch) slot r i ->
  exists up, nth_error (cs_ups c) (r_up r) = Some up /\ up_key up = r_key r /\ up_off up = r_off r /\
    up_size up = r_size r /\ up_state up = UpFin true /\ up_issued up = up_size up /\
    (forall q l lo hi, nth_error (cs_log c) q = Some (IoData (r_up r) l lo hi) ->
       q < durable_upto (firstn n (cs_log c))).
Proof.
  intros g cfg t0 c R n ch slot r i [H1 H2]. unfold crash_of in *.
  destruct (creach_inv _ _ _ _ R) as [[_ [_ [HL _]]] _].
  (* the record is a record write of the prefix *)
  rewrite crash_medium_index in H1. cbn [m_index medium_empty app] in H1.
  apply slot_get_in in H1. destruct H1 as [H1|[slot' H1]]; [discriminate|].
  apply select_incl in H1. apply index_writes_in in H1. apply In_nth_error in H1. destruct H1 as [pos Hpos].
  apply nth_firstn in Hpos. destruct Hpos as [Hpn Hpos].
  (* its seed is a seed of the surviving state file, which is the payload of a state write of the prefix *)
  apply resolve_ref_seed in H2. apply restart_seeds in H2. destruct H2 as [[st h] [Hst Hin]].
  apply crash_medium_state in Hst. destruct Hst as [Hst|Hst]; [inversion Hst; subst; contradiction|].
  apply In_nth_error in Hst. destruct Hst as [q Hq]. apply nth_firstn in Hq. destruct Hq as [Hqn Hq].
  cbn [fst] in Hin.
  destruct (li_W _ _ _ _ _ _ _ _ _ _ HL _ _ _ _ Hq Hin) as [_ HW]. specialize (HW _ _ _ Hpos eq_refl).
  destruct (firstn_prefix (cs_log c) q n) as [l' El]; [lia|].
  pose proof (durable_mono (firstn q (cs_log c)) l') as Hm. rewrite <- El in Hm.
  destruct (li_R _ _ _ _ _ _ _ _ _ _ HL _ _ _ Hpos) as [[[up [U1 [U2 [U3 [U4 [U5 U6]]]]]] HD]|[]].
  exists up. repeat split; auto. intros q' l lo hi Hq'. specialize (HD _ _ _ _ Hq'). lia.
Qed.

Print Assumptions record_after_data_before_close.
Print Assumptions seed_durable_after_sync.
Print Assumptions crash_safe_durable.
