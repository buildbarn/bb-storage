(** Persist/LiveCover.v — COVERAGE: the link from "a commit cycle of the put
    loop completes" to "THIS upload is covered by the state written".

    An acknowledged upload is described by the ghost record [obj] (absolute
    block index, block location, end offset, index of its epoch at
    acknowledgement time and that epoch's hash seed).  [tracked o lv d p]:
    in block list [p], after [d] epochs have been removed by PopFront since
    the acknowledgement, the object's block has been released, or
      lv >= 0: the block's writtenOffset covers the object and its epoch is
               still there (same seed, last block >= the object's block),
      lv >= 1: ... a started sync covers it (synchronizingOffset, synchronizingEpochs),
      lv >= 2: ... a completed sync covers it (synchronizedOffset, synchronizedEpochs).
    Every block-list call preserves every level, NotifySyncStarting lifts 0 to
    1, NotifySyncCompleted lifts 1 to 2, and GetPersistentState at level 2
    returns a state that covers the object. *)
From Coq Require Import List NArith ZArith Bool Arith Lia.
From BBS Require Import Persist.PBL Persist.PBLProofs Persist.Syncer Persist.SyncerProofs Persist.LiveActs.
Import ListNotations.

Lemma u32_add_l a b : u32 (u32 a + b) = u32 (a + b).
Proof. unfold u32. apply N.add_mod_idemp_l. discriminate. Qed.

Lemma u32_idem a : u32 (u32 a) = u32 a.
Proof. unfold u32. apply N.mod_mod. discriminate. Qed.

Lemma nth_error_app_some {A} (l r : list A) i x : nth_error l i = Some x -> nth_error (l ++ r) i = Some x.
Proof.
  intros H. rewrite nth_error_app1; [exact H|]. apply nth_error_Some. congruence.
Qed.

Lemma nth_error_skipn_sub {A} k : forall (l : list A) x, k <= x -> nth_error (skipn k l) (x - k) = nth_error l x.
Proof.
  induction k as [|k IH]; intros l x H.
  - rewrite Nat.sub_0_r. reflexivity.
  - destruct l as [|y l]; cbn [skipn].
    + destruct (x - S k), x; reflexivity.
    + destruct x as [|x]; [lia|]. cbn [nth_error Nat.sub]. apply IH. lia.
Qed.

Lemma nth_error_firstn_lt {A} n : forall (l : list A) i, i < n -> nth_error (firstn n l) i = nth_error l i.
Proof.
  induction n as [|n IH]; intros l i H; [lia|].
  destruct l as [|y l]; [reflexivity|]. destruct i as [|i]; [reflexivity|]. cbn. apply IH. lia.
Qed.

Lemma nth_error_repeat_eq {A} (a x : A) n i : nth_error (repeat a n) i = Some x -> x = a.
Proof. intros H. apply nth_error_In in H. eapply repeat_spec; eauto. Qed.

Lemma firstn_add {A} a : forall b (l : list A), firstn (a + b) l = firstn a l ++ firstn b (skipn a l).
Proof.
  induction a as [|a IH]; intros b l; [reflexivity|].
  destruct l as [|x l]; cbn; [rewrite firstn_nil; reflexivity|]. rewrite IH. reflexivity.
Qed.

Lemma skipn_skipn' {A} a : forall b (l : list A), skipn b (skipn a l) = skipn (a + b) l.
Proof.
  induction a as [|a IH]; intros b l; [reflexivity|].
  destruct l as [|x l]; cbn; [apply skipn_nil|]. apply IH.
Qed.

Definition core (p : pbl) :=
  (blocks p, epochSeeds p, epochLast p, totalReleased p, synchronizingEpochs p, synchronizedEpochs p).

Lemma gps_fields p p' st : get_persistent_state p = Ok (p', st) ->
  core p' = core p /\ toRelease p' = toRelease p /\ releasing p' = length (toRelease p)
  /\ releasedLog p' = releasedLog p /\ closedForWriting p' = closedForWriting p
  /\ oldestEpochID p' = oldestEpochID p /\ fst st = oldestEpochID p
  /\ gps_loop (blocks p) 0 (synchronizedEpochs p) (epochSeeds p) = Ok (snd st).
Proof.
  unfold get_persistent_state. destruct (gps_loop _ _ _ _) eqn:E; [|discriminate].
  intros [= <- <-]. cbn. splits; auto.
Qed.

Lemma nsw_fields p p' : notify_state_written p = Ok p' ->
  core p' = core p /\ toRelease p' = skipn (releasing p) (toRelease p) /\ releasing p' = 0
  /\ releasedLog p' = releasedLog p ++ firstn (releasing p) (toRelease p)
  /\ closedForWriting p' = closedForWriting p /\ oldestEpochID p' = oldestEpochID p.
Proof.
  unfold notify_state_written. destruct (_ <? _); [discriminate|].
  destruct (skipn _ _) eqn:E; [destruct (nc_block _ _)|]; intros [= <-]; cbn; splits; auto.
Qed.

Definition nss_b (b : binfo) := mkBinfo (b_loc b) (b_written b) (b_written b) (b_synced b) (b_epochs b).
Definition nsc_b (b : binfo) := mkBinfo (b_loc b) (b_written b) (b_syncing b) (b_syncing b) (b_epochs b).

Lemma nsc_fields p :
  blocks (notify_sync_completed p) = map nsc_b (blocks p)
  /\ epochSeeds (notify_sync_completed p) = epochSeeds p /\ epochLast (notify_sync_completed p) = epochLast p
  /\ totalReleased (notify_sync_completed p) = totalReleased p
  /\ synchronizingEpochs (notify_sync_completed p) = synchronizingEpochs p
  /\ synchronizedEpochs (notify_sync_completed p) = synchronizingEpochs p
  /\ toRelease (notify_sync_completed p) = toRelease p /\ releasing (notify_sync_completed p) = releasing p
  /\ releasedLog (notify_sync_completed p) = releasedLog p
  /\ closedForWriting (notify_sync_completed p) = closedForWriting p
  /\ oldestEpochID (notify_sync_completed p) = oldestEpochID p.
Proof.
  unfold notify_sync_completed. destruct (_ =? _); [destruct (nc_block _ _)|]; cbn; splits; auto.
Qed.

Lemma pop_fields p p' fb rest : blocks p = fb :: rest -> pop_front p = Ok p' ->
  blocks p' = rest /\ epochSeeds p' = skipn (b_epochs fb) (epochSeeds p)
  /\ epochLast p' = skipn (b_epochs fb) (epochLast p) /\ totalReleased p' = S (totalReleased p)
  /\ synchronizingEpochs p' = synchronizingEpochs p - b_epochs fb
  /\ synchronizedEpochs p' = synchronizedEpochs p - b_epochs fb
  /\ toRelease p' = toRelease p ++ [b_loc fb] /\ releasing p' = releasing p
  /\ releasedLog p' = releasedLog p /\ closedForWriting p' = closedForWriting p
  /\ oldestEpochID p' = u32 (oldestEpochID p + N.of_nat (b_epochs fb)).
Proof.
  intros Eb. unfold pop_front. rewrite Eb.
  destruct (nc_unblock _ _) as [[rw h1]|]; [|discriminate]. cbn [obind].
  destruct (_ || _); [discriminate|].
  assert (forall x ec, (if x <=? ec then 0 else x - ec) = x - ec) as Hs.
  { intros x ec. destruct (Nat.leb_spec x ec); lia. }
  match goal with |- context [if ?c then nc_block _ _ else _] => destruct c end;
    [destruct (nc_block _ _) as [pw h2]|]; intros H; inversion H; subst; clear H; cbn;
    rewrite !Hs; splits; auto.
Qed.

Lemma fin_cases tok blk size seed p p' fr : put_finalize tok blk size seed p = Ok (p', fr) ->
  (p' = p /\ (forall off, fr <> FinOk off)) \/
  exists abs off bumped, tok = PutAt abs /\ blk = Some off /\ fr = FinOk off /\ closedForWriting p = false
    /\ totalReleased p <= abs /\ abs - totalReleased p < length (blocks p)
    /\ blocks p' = (if bumped : bool
                    then bump_last_epoch_count (set_written (blocks p) (abs - totalReleased p) (off + size))
                    else set_written (blocks p) (abs - totalReleased p) (off + size))
    /\ epochSeeds p' = (if bumped then epochSeeds p ++ [seed] else epochSeeds p)
    /\ epochLast p' = (if bumped then epochLast p ++ [totalReleased p + length (blocks p) - 1] else epochLast p)
    /\ (bumped = false -> length (epochLast p) <> synchronizingEpochs p /\
          exists la, nth_error (epochLast p) (length (epochLast p) - 1) = Some la /\ abs <= la)
    /\ totalReleased p' = totalReleased p /\ synchronizingEpochs p' = synchronizingEpochs p
    /\ synchronizedEpochs p' = synchronizedEpochs p
    /\ toRelease p' = toRelease p /\ releasing p' = releasing p /\ releasedLog p' = releasedLog p
    /\ closedForWriting p' = closedForWriting p /\ oldestEpochID p' = oldestEpochID p.
Proof.
  unfold put_finalize.
  destruct tok as [|abs]; [intros [= <- <-]; left; split; [reflexivity|discriminate]|].
  destruct blk as [off|]; [|intros [= <- <-]; left; split; [reflexivity|discriminate]].
  destruct (closedForWriting p) eqn:Ec; [intros [= <- <-]; left; split; [reflexivity|discriminate]|].
  destruct (Nat.ltb_spec abs (totalReleased p)) as [Hlt|Hge];
    [intros [= <- <-]; left; split; [reflexivity|discriminate]|].
  destruct (Nat.leb_spec (length (blocks p)) (abs - totalReleased p)) as [Hle|Hlt]; [discriminate|].
  intros H. right. exists abs, off.
  destruct (Nat.eqb_spec (length (epochLast p)) (synchronizingEpochs p)) as [He|Hne].
  - cbn [obind] in H. destruct (nc_unblock _ _) as [[pw h1]|]; [|discriminate]. cbn [obind] in H.
    inversion H; subst; clear H. exists true. cbn. rewrite set_written_length. splits; auto; try discriminate.
  - destruct (length (epochLast p)) as [|n'] eqn:El; [discriminate|].
    destruct (nth_error (epochLast p) n') as [la|] eqn:En; [|discriminate]. cbn [obind] in H.
    destruct (Nat.ltb_spec la abs) as [Hla|Hla].
    + destruct (nc_unblock _ _) as [[pw h1]|]; [|discriminate]. cbn [obind] in H.
      inversion H; subst; clear H. exists true. cbn. rewrite set_written_length. splits; auto; try discriminate.
    + inversion H; subst; clear H. exists false. cbn. splits; auto.
      intros _. split; [exact Hne|]. exists la. rewrite Nat.sub_0_r. split; [exact En|exact Hla].
Qed.

(** blocks keep location and sync offsets under set_written / bump *)
Definition same_sync (b b' : binfo) : Prop :=
  b_loc b' = b_loc b /\ (b_written b <= b_written b')%Z /\ b_syncing b' = b_syncing b /\ b_synced b' = b_synced b.

Lemma set_written_nth bs : forall i w j b, nth_error bs j = Some b ->
  exists b', nth_error (set_written bs i w) j = Some b' /\ same_sync b b' /\ (j = i -> (w <= b_written b')%Z).
Proof.
  induction bs as [|x r IH]; intros i w j b H; [destruct j; discriminate|].
  destruct i as [|i], j as [|j]; cbn in *.
  - inversion H; subst. destruct (Z.ltb_spec (b_written b) w); eexists; (split; [reflexivity|]);
      unfold same_sync; cbn; splits; auto; try lia.
  - exists b. unfold same_sync. splits; auto; try lia; try discriminate.
  - inversion H; subst. exists b. unfold same_sync. splits; auto; try lia; try discriminate.
  - destruct (IH i w j b H) as [b' [H1 [H2 H3]]]. exists b'. splits; auto.
Qed.

Lemma bump_nth bs : forall j b, nth_error bs j = Some b ->
  exists b', nth_error (bump_last_epoch_count bs) j = Some b' /\ same_sync b b'.
Proof.
  induction bs as [|x r IH]; intros j b H; [destruct j; discriminate|].
  destruct r as [|y r'].
  - destruct j as [|j]; [|destruct j; discriminate]. cbn in *. injection H as <-.
    eexists. split; [reflexivity|]. unfold same_sync; cbn; splits; auto; lia.
  - change (bump_last_epoch_count (x :: y :: r')) with (x :: bump_last_epoch_count (y :: r')).
    destruct j as [|j]; cbn [nth_error] in *.
    + inversion H; subst. exists b. unfold same_sync; splits; auto; lia.
    + apply IH. exact H.
Qed.

Record obj := mkObj {
  o_block : nat;      (* absolute block index (totalBlocksReleased + index at Put time) *)
  o_loc : loc;        (* location of that block *)
  o_end : Z;          (* offset + size: the block must be persisted up to here *)
  o_epoch : nat;      (* index of the object's epoch in epochHashSeeds when the finalizer returned *)
  o_seed : N          (* that epoch's hash seed *)
}.

Definition popc (a : act) (p : pbl) : nat :=
  match a with
  | APop => match blocks p with b :: _ => b_epochs b | [] => 0 end
  | _ => 0
  end.

Lemma act_fields a p p' : apply_act a p = Ok p' ->
  toRelease p' = (match a with
                  | APop => toRelease p ++ map b_loc (firstn 1 (blocks p))
                  | AWritten _ => skipn (releasing p) (toRelease p)
                  | _ => toRelease p end)
  /\ releasing p' = (match a with AGetState _ => length (toRelease p) | AWritten _ => 0 | _ => releasing p end)
  /\ releasedLog p' = (match a with
                       | AWritten _ => releasedLog p ++ firstn (releasing p) (toRelease p)
                       | _ => releasedLog p end)
  /\ totalReleased p' = (match a with APop => S (totalReleased p) | _ => totalReleased p end)
  /\ closedForWriting p' = (match a with ASyncDone true => true | _ => closedForWriting p end)
  /\ oldestEpochID p' = (match a with
                         | APop => u32 (oldestEpochID p + N.of_nat (popc a p))
                         | _ => oldestEpochID p end)
  /\ (match a with
      | ASyncStart | ASyncDone true => True
      | _ => synchronizingEpochs p' = synchronizingEpochs p - popc a p end).
Proof.
  destruct a as [|al| |tok blk size seed| |b|t|t]; cbn [apply_act popc]; rewrite ?Nat.sub_0_r.
  - intros [= <-]. splits; reflexivity.
  - intros [= <-]. unfold push_back. destruct (closedForWriting p) eqn:Ec; [splits; auto|].
    destruct al; cbn; splits; auto.
  - intros H. destruct (blocks p) as [|fb rest] eqn:Eb; [unfold pop_front in H; rewrite Eb in H; discriminate|].
    destruct (pop_fields _ _ _ _ Eb H) as (_ & _ & _ & Ft & Fsy & _ & Fr & Fg & Fl & Fc & Fo). splits; assumption.
  - destruct (put_finalize _ _ _ _ _) as [[p1 fr]|] eqn:Ef; [|discriminate]. intros [= <-].
    destruct (fin_cases _ _ _ _ _ _ _ Ef) as [[-> _]|
      (abs & off & bumped & _ & _ & _ & _ & _ & _ & _ & _ & _ & _ & Ft & Fsy & _ & Fr & Fg & Fl & Fc & Fo)];
      splits; auto.
  - intros [= <-]. cbn. splits; auto.
  - intros [= <-]. destruct (nsc_fields p) as (_ & _ & _ & Ft & Fsy & _ & Fr & Fg & Fl & Fc & Fo).
    destruct b; cbn; splits; auto.
  - destruct (get_persistent_state p) as [[p1 st]|] eqn:Eg; [|discriminate]. intros [= <-].
    destruct (gps_fields _ _ _ Eg) as (Hc & Fr & Fg & Fl & Fc & Fo & _). inversion Hc.
    splits; auto.
  - intros H. destruct (nsw_fields _ _ H) as (Hc & Fr & Fg & Fl & Fc & Fo). inversion Hc. splits; auto.
Qed.

Definition tracked (o : obj) (lv d : nat) (p : pbl) : Prop :=
  o_block o < totalReleased p \/
  (totalReleased p <= o_block o /\ d <= o_epoch o /\ exists b la,
     nth_error (blocks p) (o_block o - totalReleased p) = Some b /\ b_loc b = o_loc o
     /\ (o_end o <= b_written b)%Z
     /\ nth_error (epochSeeds p) (o_epoch o - d) = Some (o_seed o)
     /\ nth_error (epochLast p) (o_epoch o - d) = Some la /\ o_block o <= la
     /\ (1 <= lv -> (o_end o <= b_syncing b)%Z /\ o_epoch o - d < synchronizingEpochs p)
     /\ (2 <= lv -> (o_end o <= b_synced b)%Z /\ o_epoch o - d < synchronizedEpochs p)).

Lemma tracked_weaken o lv lv' d p : lv' <= lv -> tracked o lv d p -> tracked o lv' d p.
Proof.
  intros Hle [H|[H1 [H2 [b [la [A [B [C [D [E [F [G1 G2]]]]]]]]]]]]; [left; exact H|right].
  splits; auto. exists b, la. splits; auto; intros; [apply G1|apply G2]; lia.
Qed.

Lemma tracked_core o lv d p p' : core p' = core p -> tracked o lv d p -> tracked o lv d p'.
Proof.
  unfold core, tracked. intros H. inversion H as [[H1 H2 H3 H4 H5 H6]]. rewrite H1, H2, H3, H4, H5, H6. auto.
Qed.

Lemma tracked_nss o lv d f p : tracked o lv d p -> tracked o (Nat.max lv 1) d (notify_sync_starting f p).
Proof.
  intros [H|[H1 [H2 [b [la [A [B [C [D [E [F [G1 G2]]]]]]]]]]]]; [left; exact H|right]. cbn.
  splits; auto. exists (nss_b b), la. splits; auto.
  - apply (map_nth_error nss_b _ _ A).
  - intros _. cbn. split; [exact C|]. apply nth_error_Some. congruence.
  - intros Hl. cbn. apply G2. lia.
Qed.

Lemma tracked_nsc o lv d p :
  tracked o lv d p -> tracked o (match lv with 0 => 0 | _ => 2 end) d (notify_sync_completed p).
Proof.
  intros [H|[H1 [H2 [b [la [A [B [C [D [E [F [G1 G2]]]]]]]]]]]];
    destruct (nsc_fields p) as [Fb [Fs [Fl [Ft [Fsy [Fsd _]]]]]]; unfold tracked; rewrite Fb, Fs, Fl, Ft, Fsy, Fsd;
    [left; exact H|right].
  splits; auto. exists (nsc_b b), la. splits; auto.
  - apply (map_nth_error nsc_b _ _ A).
  - intros Hl. cbn. apply G1. destruct lv; lia.
  - intros Hl. cbn. apply G1. destruct lv; lia.
Qed.

Lemma tracked_push o lv d al p : tracked o lv d p -> tracked o lv d (fst (push_back al p)).
Proof.
  unfold push_back. destruct (closedForWriting p); [auto|]. destruct al; [|auto]. cbn.
  intros [H|[H1 [H2 [b [la [A [B [C [D [E [F [G1 G2]]]]]]]]]]]]; [left; exact H|right]. cbn.
  splits; auto. exists b, la. splits; auto. apply nth_error_app_some. exact A.
Qed.

Lemma first_block_epochs p fb rest i la : inv_last p -> blocks p = fb :: rest ->
  nth_error (epochLast p) i = Some la -> totalReleased p < la -> b_epochs fb <= i.
Proof.
  intros L Eb E Hla. destruct (Nat.le_gt_cases (b_epochs fb) i) as [|Hlt]; [assumption|exfalso].
  unfold inv_last in L. rewrite L, Eb in E. cbn [lasts_of] in E.
  rewrite nth_error_app1 in E by (rewrite repeat_length; exact Hlt).
  apply nth_error_repeat_eq in E. lia.
Qed.

Lemma tracked_pop o lv d p p' fb rest : inv_last p -> blocks p = fb :: rest -> pop_front p = Ok p' ->
  tracked o lv d p -> tracked o lv (d + b_epochs fb) p'.
Proof.
  intros L Eb Hp T. destruct (pop_fields _ _ _ _ Eb Hp) as [Fb [Fs [Fl [Ft [Fsy [Fsd _]]]]]].
  unfold tracked. rewrite Fb, Fs, Fl, Ft, Fsy, Fsd.
  destruct T as [H|[H1 [H2 [b [la [A [B [C [D [E [F [G1 G2]]]]]]]]]]]]; [left; lia|].
  destruct (Nat.eq_dec (o_block o) (totalReleased p)) as [Heq|Hne]; [left; lia|right].
  pose proof (first_block_epochs _ _ _ _ _ L Eb E ltac:(lia)) as Hec.
  rewrite Eb in A. replace (o_block o - totalReleased p) with (S (o_block o - S (totalReleased p))) in A by (clear - H1 Hne; lia).
  cbn [nth_error] in A.
  rewrite Nat.sub_add_distr.
  rewrite !nth_error_skipn_sub by exact Hec.
  splits; try lia. exists b, la. splits; auto.
  - intros Hl. destruct (G1 Hl). split; [assumption|lia].
  - intros Hl. destruct (G2 Hl). split; [assumption|lia].
Qed.

Lemma tracked_fin o lv d tok blk size seed p p' fr : put_finalize tok blk size seed p = Ok (p', fr) ->
  tracked o lv d p -> tracked o lv d p'.
Proof.
  intros Hf T. destruct (fin_cases _ _ _ _ _ _ _ Hf) as [[-> _]|
    [abs [off [bumped [_ [_ [_ [_ [_ [_ [Fb [Fs [Fl [_ [Ft [Fsy [Fsd _]]]]]]]]]]]]]]]]]; [exact T|].
  unfold tracked. rewrite Fb, Fs, Fl, Ft, Fsy, Fsd.
  destruct T as [H|[H1 [H2 [b [la [A [B [C [D [E [F [G1 G2]]]]]]]]]]]]; [left; exact H|right].
  splits; auto.
  destruct (set_written_nth _ (abs - totalReleased p) (off + size)%Z _ _ A) as [b1 [A1 [[S1 [S2 [S3 S4]]] _]]].
  assert (exists b2, nth_error (if bumped
            then bump_last_epoch_count (set_written (blocks p) (abs - totalReleased p) (off + size))
            else set_written (blocks p) (abs - totalReleased p) (off + size)) (o_block o - totalReleased p) = Some b2
          /\ same_sync b1 b2) as [b2 [A2 [S1' [S2' [S3' S4']]]]].
  { destruct bumped; [apply bump_nth; exact A1|]. exists b1. split; [exact A1|]. unfold same_sync; splits; auto; lia. }
  exists b2, la.
  split; [exact A2|]. split; [congruence|]. split; [lia|].
  split; [destruct bumped; [apply nth_error_app_some|]; exact D|].
  split; [destruct bumped; [apply nth_error_app_some|]; exact E|].
  split; [exact F|].
  split; intros Hl; [destruct (G1 Hl)|destruct (G2 Hl)]; (split; [|assumption]);
    [rewrite S3', S3|rewrite S4', S4]; assumption.
Qed.

Definition lv_next (lv : nat) (a : act) : nat :=
  match a with
  | ASyncStart => Nat.max lv 1
  | ASyncDone true => match lv with 0 => 1 | _ => 2 end
  | ASyncDone false => match lv with 0 => 0 | _ => 2 end
  | _ => lv
  end.

Lemma tracked_act o lv d a p p' : inv_last p -> apply_act a p = Ok p' -> tracked o lv d p ->
  tracked o (lv_next lv a) (d + popc a p) p'.
Proof.
  intros L Ha T. destruct a as [|al| |tok blk size seed| |b|t|t]; cbn [apply_act popc lv_next] in *.
  - injection Ha as <-. rewrite Nat.add_0_r. exact T.
  - injection Ha as <-. rewrite Nat.add_0_r. apply tracked_push. exact T.
  - destruct (blocks p) as [|fb rest] eqn:Eb; [unfold pop_front in Ha; rewrite Eb in Ha; discriminate|].
    eapply tracked_pop; eauto.
  - destruct (put_finalize _ _ _ _ _) as [[p1 fr]|] eqn:Ef; [|discriminate]. cbn in Ha. injection Ha as <-.
    rewrite Nat.add_0_r. eapply tracked_fin; eauto.
  - injection Ha as <-. rewrite Nat.add_0_r. apply tracked_nss. exact T.
  - injection Ha as <-. rewrite Nat.add_0_r. destruct b.
    + pose proof (tracked_nss o _ d true _ (tracked_nsc o lv d p T)) as T'.
      eapply tracked_weaken; [|exact T']. destruct lv; cbn; lia.
    + apply tracked_nsc. exact T.
  - destruct (get_persistent_state p) as [[p1 st]|] eqn:Eg; [|discriminate]. cbn in Ha. injection Ha as <-.
    rewrite Nat.add_0_r. destruct (gps_fields _ _ _ Eg) as [Hc _]. eapply tracked_core; eauto.
  - destruct (nsw_fields _ _ Ha) as [Hc _]. rewrite Nat.add_0_r. eapply tracked_core; eauto.
Qed.

Definition obj_of (p p' : pbl) (abs : nat) (endoff : Z) : obj :=
  mkObj abs (nth (abs - totalReleased p) (map b_loc (blocks p)) (0, 0)%Z) endoff
        (length (epochSeeds p') - 1) (nth (length (epochSeeds p') - 1) (epochSeeds p') 0%N).

Lemma fin_tracked abs blk size seed p p' off : pbl_inv p ->
  put_finalize (PutAt abs) blk size seed p = Ok (p', FinOk off) ->
  tracked (obj_of p p' abs (off + size)) 0 0 p'.
Proof.
  intros I Hf. destruct (fin_cases _ _ _ _ _ _ _ Hf) as [[_ Hn]|
    [abs0 [off0 [bumped [Ht [_ [Hfr [_ [Hge [Hlt [Fb [Fs [Fl [Hnb [Ft _]]]]]]]]]]]]]]]; [exfalso; eapply Hn; reflexivity|].
  inversion Ht; subst abs0. inversion Hfr; subst off0. clear Ht Hfr.
  right. unfold obj_of. cbn [o_block o_loc o_end o_epoch o_seed]. rewrite Ft, Nat.sub_0_r.
  split; [exact Hge|]. split; [lia|].
  destruct (nth_error (blocks p) (abs - totalReleased p)) as [b0|] eqn:E0;
    [|apply nth_error_None in E0; lia].
  destruct (set_written_nth _ (abs - totalReleased p) (off + size)%Z _ _ E0) as [b1 [A1 [[S1 [S2 [S3 S4]]] Hw]]].
  assert (exists b2, nth_error (blocks p') (abs - totalReleased p) = Some b2 /\ same_sync b1 b2)
    as [b2 [A2 [S1' [S2' _]]]].
  { rewrite Fb. destruct bumped; [apply bump_nth; exact A1|]. exists b1. split; [exact A1|].
    unfold same_sync; splits; auto; lia. }
  assert (0 < length (epochSeeds p') /\
          exists la, nth_error (epochLast p') (length (epochSeeds p') - 1) = Some la /\ abs <= la) as [Hpos [la [Hla Hle]]].
  { rewrite Fs, Fl. pose proof (i_len _ I) as Hlen. destruct bumped.
    - rewrite app_length. cbn. split; [lia|]. eexists. split.
      + rewrite nth_error_app2 by lia. replace (length (epochSeeds p) + 1 - 1 - length (epochLast p)) with 0 by lia.
        reflexivity.
      + lia.
    - destruct (Hnb eq_refl) as [_ [la [Hla Hle]]]. rewrite <- Hlen.
      split; [|exists la; auto]. assert (length (epochLast p) - 1 < length (epochLast p)); [|lia].
      apply nth_error_Some. congruence. }
  exists b2, la.
  split; [exact A2|].
  split; [rewrite S1', S1; symmetry; apply nth_error_nth; apply (map_nth_error b_loc _ _ E0)|].
  split; [specialize (Hw eq_refl); lia|].
  split; [apply nth_error_nth'; lia|].
  split; [exact Hla|]. split; [exact Hle|]. split; intros; lia.
Qed.

Lemma tec_cons b r : total_epoch_count (b :: r) = b_epochs b + total_epoch_count r.
Proof. reflexivity. Qed.

Lemma tec_firstn_mono bs : forall i j, i <= j ->
  total_epoch_count (firstn i bs) <= total_epoch_count (firstn j bs).
Proof.
  induction bs as [|b r IH]; intros [|i] [|j] H; cbn [firstn]; rewrite ?tec_cons; try lia.
  - unfold total_epoch_count. cbn. lia.
  - specialize (IH i j). lia.
Qed.

Lemma lasts_of_nth bs : forall base x la, nth_error (lasts_of base bs) x = Some la ->
  base <= la /\ total_epoch_count (firstn (la - base) bs) <= x.
Proof.
  induction bs as [|b r IH]; intros base x la H; cbn [lasts_of] in H.
  - destruct x; discriminate.
  - destruct (Nat.lt_ge_cases x (b_epochs b)) as [Hlt|Hge].
    + rewrite nth_error_app1 in H by (rewrite repeat_length; exact Hlt).
      apply nth_error_repeat_eq in H. subst. rewrite Nat.sub_diag. cbn. split; [lia|].
      unfold total_epoch_count; cbn; lia.
    + rewrite nth_error_app2 in H by (rewrite repeat_length; exact Hge). rewrite repeat_length in H.
      destruct (IH _ _ _ H) as [H1 H2]. split; [lia|].
      replace (la - base) with (S (la - S base)) by lia. cbn [firstn]. rewrite tec_cons. lia.
Qed.

Lemma gps_blocks synced seeds bs : forall lastE r j b, gps_loop bs lastE synced seeds = Ok r ->
  nth_error bs j = Some b -> lastE + total_epoch_count (firstn j bs) < synced ->
  exists sds, nth_error r j = Some (mkBstate (b_loc b) (b_synced b) sds).
Proof.
  induction bs as [|x bs IH]; intros lastE r j b H Hn Hlt; [destruct j; discriminate|].
  cbn [gps_loop] in H. destruct (Nat.ltb_spec lastE synced) as [Hl|Hl]; [|exfalso; lia].
  destruct (_ <? _); [discriminate|].
  destruct (gps_loop bs _ synced seeds) as [r'|] eqn:Er; [|discriminate]. cbn in H. inversion H; subst; clear H.
  destruct j as [|j].
  - cbn in Hn. injection Hn as <-. eexists. reflexivity.
  - cbn [nth_error] in *. eapply IH; eauto. cbn [firstn] in Hlt. rewrite tec_cons in Hlt. lia.
Qed.

Lemma gps_prefix synced seeds bs : forall lastE r j e, gps_loop bs lastE synced seeds = Ok r ->
  nth_error r j = Some e ->
  exists b, nth_error bs j = Some b /\ bs_loc e = b_loc b /\ bs_off e = b_synced b.
Proof.
  induction bs as [|x bs IH]; intros lastE r j e H Hn; cbn [gps_loop] in H.
  - destruct (_ <? _); [discriminate|]. injection H as <-. destruct j; discriminate.
  - destruct (lastE <? synced); [|injection H as <-; destruct j; discriminate].
    destruct (_ <? _); [discriminate|].
    destruct (gps_loop bs _ synced seeds) as [r'|] eqn:Er; [|discriminate]. cbn in H. inversion H; subst; clear H.
    destruct j as [|j]; cbn [nth_error] in *.
    + injection Hn as <-. exists x. auto.
    + eapply IH; eauto.
Qed.

Lemma gps_seeds synced seeds bs : forall lastE r, gps_loop bs lastE synced seeds = Ok r ->
  lastE <= synced -> synced <= lastE + total_epoch_count bs ->
  concat (map bs_seeds r) = firstn (synced - lastE) (skipn lastE seeds).
Proof.
  induction bs as [|x bs IH]; intros lastE r H H1 H2; cbn [gps_loop] in H.
  - unfold total_epoch_count in H2; cbn in H2. destruct (Nat.ltb_spec lastE synced); [lia|].
    injection H as <-. replace (synced - lastE) with 0 by lia. reflexivity.
  - destruct (Nat.ltb_spec lastE synced) as [Hl|Hl].
    + destruct (_ <? _); [discriminate|].
      remember (Nat.min (lastE + b_epochs x) synced) as last eqn:Elast.
      destruct (gps_loop bs last synced seeds) as [r'|] eqn:Er; [|discriminate].
      cbn in H. inversion H; subst r; clear H. cbn [map concat bs_seeds].
      rewrite tec_cons in H2.
      rewrite (IH _ _ Er) by lia.
      replace (synced - lastE) with ((last - lastE) + (synced - last)) by lia.
      rewrite firstn_add, skipn_skipn'. replace (lastE + (last - lastE)) with last by lia. reflexivity.
    + injection H as <-. replace (synced - lastE) with 0 by lia. reflexivity.
Qed.

(** the persistent state [st] covers object [o], found at block index [bi]
    of the state and at epoch index [ei] of the state's seeds (blocks in
    order, as NewPersistentBlockList concatenates them on restoration) *)
Definition covers (st : pstate) (bi : nat) (o : obj) (ei : nat) : Prop :=
  (exists bs, nth_error (snd st) bi = Some bs /\ bs_loc bs = o_loc o /\ (o_end o <= bs_off bs)%Z)
  /\ nth_error (concat (map bs_seeds (snd st))) ei = Some (o_seed o).

Lemma gps_covers o d p p' st : pbl_inv p -> inv_last p -> tracked o 2 d p ->
  get_persistent_state p = Ok (p', st) ->
  o_block o < totalReleased p \/ covers st (o_block o - totalReleased p) o (o_epoch o - d).
Proof.
  intros I L T Hg. destruct T as [H|[H1 [H2 [b [la [A [B [C [D [E [F [G1 G2]]]]]]]]]]]]; [left; exact H|right].
  destruct (G2 (le_n 2)) as [Hs Hlt]. destruct (gps_fields _ _ _ Hg) as [_ [_ [_ [_ [_ [_ [_ Hloop]]]]]]].
  unfold inv_last in L. rewrite L in E. destruct (lasts_of_nth _ _ _ _ E) as [_ Hcnt].
  pose proof (tec_firstn_mono (blocks p) (o_block o - totalReleased p) (la - totalReleased p) ltac:(lia)) as Hm.
  split.
  - destruct (gps_blocks _ _ _ _ _ _ _ Hloop A ltac:(lia)) as [sds Hn].
    eexists. split; [exact Hn|]. cbn. split; [exact B|exact Hs].
  - rewrite (gps_seeds _ _ _ _ _ Hloop) by (pose proof (i_sum _ I); pose proof (i_sync1 _ I); pose proof (i_sync2 _ I); lia).
    rewrite Nat.sub_0_r. cbn [skipn]. rewrite nth_error_firstn_lt by exact Hlt. exact D.
Qed.

Fixpoint popsum (cfg : config) (s : sys) (tr : list event) : nat :=
  match tr with
  | [] => 0
  | e :: tr' =>
      match step cfg s e with
      | Some (Ok s') => popc (act_of s e) (s_pbl s) + popsum cfg s' tr'
      | _ => 0
      end
  end.

Lemma lv_next_ge lv a : lv <= 2 -> lv <= lv_next lv a.
Proof. intros H. destruct a as [| | | | |[]| |]; unfold lv_next; try lia; destruct lv; lia. Qed.

Lemma step_tracked cfg o lv d s e s' : linv s -> tracked o lv d (s_pbl s) -> step cfg s e = Some (Ok s') ->
  tracked o (lv_next lv (act_of s e)) (d + popc (act_of s e) (s_pbl s)) (s_pbl s').
Proof.
  intros [_ L] T H. eapply tracked_act; eauto. eapply step_act; eauto.
Qed.

Lemma run_tracked cfg o lv tr : lv <= 2 -> forall s d s', linv s -> tracked o lv d (s_pbl s) ->
  run cfg s tr = Some (Ok s') -> tracked o lv (d + popsum cfg s tr) (s_pbl s').
Proof.
  intros Hlv. induction tr as [|e tr IH]; intros s d s' I T H; cbn in *.
  - injection H as <-. rewrite Nat.add_0_r. exact T.
  - destruct (step cfg s e) as [[s1|]|] eqn:Es; try discriminate.
    rewrite Nat.add_assoc. eapply IH; [eapply step_linv; eauto| |exact H].
    eapply tracked_weaken; [apply (lv_next_ge lv (act_of s e) Hlv)|]. eapply step_tracked; eauto.
Qed.

Definition sync_starts (s : sys) (e : event) : bool :=
  match act_of s e with ASyncStart | ASyncDone true => true | _ => false end.
Definition sync_completes (s : sys) (e : event) : bool :=
  match act_of s e with ASyncDone _ => true | _ => false end.

(** the state passed to WritePersistentState by thread [t], in flight in [s] *)
Definition written_state (s : sys) (t : tid) : option pstate :=
  match t with
  | TR => match s_r s with RW (WWriting st) => Some st | _ => None end
  | TP => match s_p s with PW _ (WWriting st) => Some st | _ => None end
  end.

Lemma getstate_step cfg s e s' t : step cfg s e = Some (Ok s') -> act_of s e = AGetState t ->
  exists p' st, get_persistent_state (s_pbl s) = Ok (p', st) /\ written_state s' t = Some st
    /\ s_pbl s' = p' /\ exists a, e = EStep t a.
Proof.
  destruct e as [alloc| |index size|k blk seed|d| |t' a]; cbn [act_of]; try discriminate.
  - destruct (nth_error _ _) as [[[tok sz]|]|]; discriminate.
  - destruct t'; cbn [step].
    + unfold rstep. destruct (s_r s) as [|ch|w]; try discriminate.
      destruct w; cbn [wact]; try discriminate. cbn [wstep].
      destruct (get_persistent_state _) as [[p' st]|]; [|discriminate].
      intros [= <-] [= <-]. exists p', st. cbn. splits; eauto.
    + unfold pstep. destruct (s_p s) as [| | | | | | | |k w|]; try discriminate.
      destruct w; cbn [wact]; try discriminate. cbn [wstep].
      destruct (get_persistent_state _) as [[p' st]|]; [|discriminate].
      intros [= <-] [= <-]. exists p', st. cbn. splits; eauto.
Qed.

Lemma fin_step cfg s k blk seed s' tok size p' fr : step cfg s (EFinalize k blk seed) = Some (Ok s') ->
  nth_error (s_uploads s) k = Some (Some (tok, size)) ->
  put_finalize tok blk size seed (s_pbl s) = Ok (p', fr) -> s_pbl s' = p'.
Proof. cbn [step]. intros H En Hf. rewrite En, Hf in H. injection H as <-. reflexivity. Qed.

(** COVERAGE of an upload.  Schedule = ... finalizer returning FinOk (step i),
    [trA], a step that starts a data sync, [trB], a step at which a data sync
    completes, [trC], a step (of either loop) that calls GetPersistentState
    and starts WritePersistentState.  Then the object's block has been
    released by PopFront in the meantime, or the state passed to the store
    covers the object.  ([d]: epochs removed by PopFront in between; the
    object's epoch is not among them.) *)
Theorem upload_covered_seg cfg s1 k blk seed s1' abs size off p' trA s2 e2 s2' trB s3 e3 s3' trC s4 e4 s4' t :
  linv s1 ->
  step cfg s1 (EFinalize k blk seed) = Some (Ok s1') ->
  nth_error (s_uploads s1) k = Some (Some (PutAt abs, size)) ->
  put_finalize (PutAt abs) blk size seed (s_pbl s1) = Ok (p', FinOk off) ->
  run cfg s1' trA = Some (Ok s2) -> step cfg s2 e2 = Some (Ok s2') -> sync_starts s2 e2 = true ->
  run cfg s2' trB = Some (Ok s3) -> step cfg s3 e3 = Some (Ok s3') -> sync_completes s3 e3 = true ->
  run cfg s3' trC = Some (Ok s4) -> step cfg s4 e4 = Some (Ok s4') -> act_of s4 e4 = AGetState t ->
  let o := obj_of (s_pbl s1) p' abs (off + size) in
  let d := popsum cfg s1' trA + popsum cfg s2' trB + popsum cfg s3' trC in
  abs < totalReleased (s_pbl s4) \/
  exists st, written_state s4' t = Some st /\ covers st (abs - totalReleased (s_pbl s4)) o (o_epoch o - d)
             /\ d <= o_epoch o.
Proof.
  intros I1 Hs1 Hu Hf HA H2 Hst HB H3 Hco HC H4 Hg o d.
  pose proof (fin_step _ _ _ _ _ _ _ _ _ _ Hs1 Hu Hf) as <-.
  pose proof (step_linv _ _ _ _ I1 Hs1) as I1'.
  pose proof (fin_tracked _ _ _ _ _ _ _ (proj1 (proj1 I1)) Hf) as T0. fold o in T0.
  pose proof (run_tracked _ _ 0 _ ltac:(lia) _ _ _ I1' T0 HA) as TA. pose proof (run_linv _ _ _ _ I1' HA) as I2.
  pose proof (step_tracked _ _ _ _ _ _ _ I2 TA H2) as T2. pose proof (step_linv _ _ _ _ I2 H2) as I2'.
  assert (tracked o 1 (0 + popsum cfg s1' trA) (s_pbl s2')) as T2'.
  { unfold sync_starts in Hst. destruct (act_of s2 e2) as [| | | | |[]| |]; try discriminate;
      cbn in T2; rewrite Nat.add_0_r in T2; exact T2. }
  pose proof (run_tracked _ _ 1 _ ltac:(lia) _ _ _ I2' T2' HB) as TB. pose proof (run_linv _ _ _ _ I2' HB) as I3.
  pose proof (step_tracked _ _ _ _ _ _ _ I3 TB H3) as T3. pose proof (step_linv _ _ _ _ I3 H3) as I3'.
  assert (tracked o 2 (0 + popsum cfg s1' trA + popsum cfg s2' trB) (s_pbl s3')) as T3'.
  { unfold sync_completes in Hco. destruct (act_of s3 e3) as [| | | | |[]| |]; try discriminate;
      cbn in T3; rewrite Nat.add_0_r in T3; exact T3. }
  pose proof (run_tracked _ _ 2 _ ltac:(lia) _ _ _ I3' T3' HC) as TC. pose proof (run_linv _ _ _ _ I3' HC) as I4.
  destruct (getstate_step _ _ _ _ _ H4 Hg) as [p4 [st [Hgs [Hw _]]]].
  destruct (gps_covers _ _ _ _ _ (proj1 (proj1 I4)) (proj2 I4) TC Hgs) as [Hr|Hc]; [left; exact Hr|].
  destruct TC as [Hr|(_ & Hd & _)]; [left; exact Hr|right].
  exists st. split; [exact Hw|]. split; [exact Hc|exact Hd].
Qed.
