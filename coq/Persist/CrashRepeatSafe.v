(** Persist/CrashRepeatSafe.v — REPEATED crashes, the full statement.

    Uploads are identified by (life, index): the data device after a history
    [H] of lives is viewed as the list [hist_data H] of the surviving data
    writes of every life, each tagged with the number of its life;
    [towner … l z] = (life, upload) of the LAST surviving write covering byte
    [z] of region [l] (its erasure is [byte_owner] on the medium's data,
    [lives_data] / [towner_owner]).

    [good g H m r i]: record [r], seed-resolving to block [i] of the list
    restarted on medium [m] (in particular: every record that
    BlockReferenceToBlockIndex + the checksum accept), designates a COMPLETED
    upload (life j, index k) of the record's key, offset and size, all of
    whose data writes were durable when life j crashed, allocated in the very
    device region block [i] occupies, below the block's restored write
    offset, and every byte of the location is OWNED by a write of that upload
    on the data device as the whole history left it.

    [SafeF] (every seed-resolving index record is good, and the restart
    restores duplicate-free seeds and regions) holds for empty media and is
    CLOSED under a life of any length, from any reachable state, any crash
    point, any loss choice ([SafeF_step]) — hence after arbitrarily many
    crash + restart rounds ([repeated_crash]).  Stdlib only; no axioms. *)
From Coq Require Import List NArith ZArith Bool Arith Lia Permutation.
From BBS Require Import Persist.PBL Persist.PBLProofs Persist.Syncer Persist.SyncerProofs
                        Persist.Crash Persist.CrashLts.
From BBS Require Import Persist.CrashReuseProofs.
From BBS Require Import Persist.CrashEpochProofs Persist.CrashRepeatSim Persist.CrashRepeatShadow
                        Persist.CrashRepeatRec Persist.CrashRepeat.
Import ListNotations.

Local Notation log := (list (io irec)).

Definition life_data (lf : life) : list dwrite :=
  data_durable (firstn (lf_n lf) (cs_log (lf_c lf))) ++
  select (c_data (lf_ch lf)) (data_pending (firstn (lf_n lf) (cs_log (lf_c lf)))).

Fixpoint hist_from (j : nat) (H : list life) : list (nat * dwrite) :=
  match H with
  | [] => []
  | lf :: t => map (pair j) (life_data lf) ++ hist_from (S j) t
  end.
Definition hist_data (H : list life) : list (nat * dwrite) := hist_from 0 H.

Lemma hist_from_snoc H : forall j lf, hist_from j (H ++ [lf]) = hist_from j H ++ map (pair (j + length H)) (life_data lf).
Proof.
  induction H as [|x H IH]; intros j lf; cbn.
  - rewrite app_nil_r, Nat.add_0_r. reflexivity.
  - rewrite IH, <- app_assoc. replace (S j + length H) with (j + S (length H)) by lia. reflexivity.
Qed.

Lemma hist_data_snoc H lf : hist_data (H ++ [lf]) = hist_data H ++ map (pair (length H)) (life_data lf).
Proof. unfold hist_data. rewrite hist_from_snoc. reflexivity. Qed.

Lemma lives_data g H m : lives g H m -> m_data m = map snd (hist_data H).
Proof.
  induction 1 as [|H base lf HL IH R]; [reflexivity|].
  unfold crash_of. rewrite crash_medium_data, hist_data_snoc, map_app, IH. f_equal.
  rewrite map_map. cbn. rewrite map_id. reflexivity.
Qed.

(** (life, upload) of the last surviving write that covers byte [z] of region [l] *)
Fixpoint towner (T : list (nat * dwrite)) (l : loc) (z : Z) (acc : option (nat * nat)) : option (nat * nat) :=
  match T with
  | [] => acc
  | (j, w) :: t => towner t l z (if covers w l z then Some (j, owner w) else acc)
  end.

Lemma towner_app T1 T2 l z acc : towner (T1 ++ T2) l z acc = towner T2 l z (towner T1 l z acc).
Proof. revert acc. induction T1 as [|[j w] T1 IH]; intros acc; cbn; [reflexivity|apply IH]. Qed.

Lemma towner_none J D l z acc : (forall w, In w D -> covers w l z = false) ->
  towner (map (pair J) D) l z acc = acc.
Proof.
  induction D as [|w D IH]; intros H; cbn; [reflexivity|].
  rewrite (H w (or_introl eq_refl)). apply IH. intros w' Hw. apply H. right. exact Hw.
Qed.

Lemma byte_owner_acc D l z : forall acc, byte_owner D l z acc =
  match byte_owner D l z None with Some u => Some u | None => acc end.
Proof.
  induction D as [|w D IH]; intros acc; [reflexivity|].
  rewrite <- !byte_owner_step. destruct (covers w l z); [|apply IH].
  rewrite (IH (Some (owner w))). destruct (byte_owner D l z None); reflexivity.
Qed.

Lemma towner_map J D l z : forall acc, towner (map (pair J) D) l z acc =
  match byte_owner D l z None with Some u => Some (J, u) | None => acc end.
Proof.
  induction D as [|w D IH]; intros acc; [reflexivity|].
  cbn [map towner]. rewrite <- byte_owner_step. rewrite IH.
  destruct (covers w l z).
  - rewrite (byte_owner_acc D l z (Some (owner w))). destruct (byte_owner D l z None); reflexivity.
  - reflexivity.
Qed.

(** erasing the life tags gives [byte_owner] *)
Lemma towner_owner T l z : forall acc,
  option_map snd (towner T l z acc) = byte_owner (map snd T) l z (option_map snd acc).
Proof.
  induction T as [|[j w] T IH]; intros acc; [reflexivity|].
  cbn [towner map snd]. rewrite IH, <- byte_owner_step. destruct (covers w l z); reflexivity.
Qed.

Definition pre (g : geo) (m : medium irec) : pbl := fst (restart (geom g) (m_state m)).

Definition good (g : geo) (H : list life) (m : medium irec) (r : irec) (i : nat) : Prop :=
  exists j lf k up b l,
    nth_error H j = Some lf /\ nth_error (cs_ups (lf_c lf)) k = Some up /\
    up_key up = r_key r /\ up_off up = r_off r /\ up_size up = r_size r /\
    up_state up = UpFin true /\ up_issued up = up_size up /\
    (forall q l' lo hi, nth_error (cs_log (lf_c lf)) q = Some (IoData k l' lo hi) ->
       q < durable_upto (firstn (lf_n lf) (cs_log (lf_c lf)))) /\
    nth_error (cs_locs (lf_c lf)) (up_abs up) = Some l /\
    nth_error (blocks (pre g m)) i = Some b /\ b_loc b = l /\
    (r_off r + r_size r <= b_written b)%Z /\
    forall z, (r_off r <= z < r_off r + r_size r)%Z -> towner (hist_data H) l z None = Some (j, k).

Lemma good_same g H m r r0 i : r_key r = r_key r0 -> r_off r = r_off r0 -> r_size r = r_size r0 ->
  good g H m r0 i -> good g H m r i.
Proof.
  intros E1 E2 E3 (j & lf & k & up & b & l & G). exists j, lf, k, up, b, l. rewrite E1, E2, E3. exact G.
Qed.

Definition SafeF (g : geo) (H : list life) (m : medium irec) : Prop :=
  base_ok g m /\
  forall slot r i, In (slot, r) (m_index m) -> sres (pre g m) r i -> good g H m r i.

Theorem SafeF_empty g : SafeF g [] medium_empty.
Proof.
  split; [split; constructor|]. intros slot r i [].
Qed.

Lemma cstep_prefix g cfg c e c' : cstep g cfg c e = Some c' ->
  (exists X, cs_locs c' = cs_locs c ++ X) /\
  (exists Y Z, cs_seeds c' = cs_seeds c ++ Y /\ cs_elast c' = cs_elast c ++ Z).
Proof.
  intros H. apply cstep_eff in H.
  assert (Hsame : cs_locs c' = cs_locs c -> cs_seeds c' = cs_seeds c -> cs_elast c' = cs_elast c ->
            (exists X, cs_locs c' = cs_locs c ++ X) /\
            (exists Y Z, cs_seeds c' = cs_seeds c ++ Y /\ cs_elast c' = cs_elast c ++ Z)).
  { intros -> -> ->. split; [exists []|exists [], []]; rewrite ?app_nil_r; auto. }
  eff_cases H.
  - apply obs_fields in Hobs. destruct Hobs as (_ & _ & _ & _ & _ & E6 & _ & _ & _ & E10 & E11). auto.
  - destruct Hgh as [Q1 Q2]. split; [eauto|exists [], []]. rewrite !app_nil_r. auto.
  - destruct Hgh as [Q1 Q2]. destruct Hal as (L1 & _). auto.
  - destruct Hgh as [Q1 Q2]. destruct Hal as (L1 & _). auto.
  - destruct Hgh as [Q1 Q2]. destruct Hal as (L1 & _). auto.
  - destruct Hgh as [Q1 Q2]. auto.
  - destruct Hal as (L1 & _). split; [exists []; rewrite app_nil_r; auto|eauto].
  - destruct Hgh as [Q1 Q2]. auto.
  - destruct Hgh as [Q1 Q2]. destruct Hal as (L1 & _). auto.
Qed.

Lemma crun_prefix g cfg tr : forall c c', crun g cfg c tr = Some c' ->
  (exists X, cs_locs c' = cs_locs c ++ X) /\
  (exists Y Z, cs_seeds c' = cs_seeds c ++ Y /\ cs_elast c' = cs_elast c ++ Z).
Proof.
  induction tr as [|e tr IH]; intros c c' H; cbn in H.
  - inv H. split; [exists []|exists [], []]; rewrite ?app_nil_r; auto.
  - destruct (cstep g cfg c e) as [c1|] eqn:Es; [|discriminate].
    destruct (cstep_prefix _ _ _ _ _ Es) as [[X1 E1] (Y1 & Z1 & E2 & E3)].
    destruct (IH _ _ H) as [[X2 E4] (Y2 & Z2 & E5 & E6)].
    split; [exists (X1 ++ X2)|exists (Y1 ++ Y2), (Z1 ++ Z2)]; rewrite ?app_assoc; try split; congruence.
Qed.

(** write order of the data log, transferred from the shadow run *)
Lemma rinv_real g cur0 c ch : sim c ch -> SH g cur0 ch ->
  forall p1 p2 k1 k2 l lo1 hi1 lo2 hi2 u1 u2, p1 < p2 ->
     nth_error (cs_log c) p1 = Some (IoData k1 l lo1 hi1) -> nth_error (cs_log c) p2 = Some (IoData k2 l lo2 hi2) ->
     nth_error (cs_ups c) k1 = Some u1 -> nth_error (cs_ups c) k2 = Some u2 -> up_abs u1 <= up_abs u2.
Proof.
  intros Sm HSH. destruct (sim_fields _ _ Sm) as (F1 & F2 & F3 & _).
  destruct (sh_r _ _ _ HSH) as [_ _ _ R4 _].
  assert (ND : forall q k l lo hi, nth_error (cs_log c) q = Some (IoData k l lo hi) ->
                 nth_error (cs_log ch) q = Some (IoData k l lo hi)).
  { intros. apply (sim_nth_noindex _ _ _ _ Sm); [intros; discriminate|assumption]. }
  intros p1 p2 k1 k2 l lo1 hi1 lo2 hi2 u1 u2 Hlt P1 P2 K1 K2. rewrite <- F2 in K1, K2.
  exact (R4 p1 p2 k1 k2 l lo1 hi1 lo2 hi2 u1 u2 Hlt (ND _ _ _ _ _ P1) (ND _ _ _ _ _ P2) K1 K2).
Qed.

Lemma life_facts g cfg base t0 c : length (g_locs g) < 65536 -> NoDup (g_locs g) -> base_ok g base ->
  creach g cfg base t0 c ->
  (exists K, reuse_witness c K) /\ A.ainv (cs_cur (cinit g base t0)) c /\ NoDup (cs_seeds c) /\
  (forall a, a < length (blocks (pre g base)) ->
     nth_error (cs_locs c) a = nth_error (map b_loc (blocks (pre g base))) a) /\
  exists Ys Zs, cs_seeds c = epochSeeds (pre g base) ++ Ys /\ cs_elast c = epochLast (pre g base) ++ Zs.
Proof.
  intros Hg Hnd Hbase R. split; [exact (region_reuse_any_base g cfg base t0 c Hg Hnd Hbase R)|].
  split; [exact (A.creach_ainv _ _ _ _ _ R)|].
  split; [exact (A.gi_nodup _ _ _ (ginv_any_base g cfg base t0 c Hg Hnd Hbase R))|].
  destruct R as [tr Htr]. destruct (crun_prefix _ _ _ _ _ Htr) as [[X HX] HYZ]. split; [|exact HYZ].
  intros a Ha. rewrite HX. apply nth_error_app1. rewrite map_length. exact Ha.
Qed.

(** no surviving write of the new life covers the bytes of an object in a restored block,
    as long as the surviving state file still lists the block *)

Definition still_listed (c : cst) (K : nat -> nat) (n a : nat) : Prop :=
  dlw (firstn n (cs_log c)) = None \/
  exists q st, (forall lw, dlw (firstn n (cs_log c)) = Some lw -> lw <= q) /\
    nth_error (cs_log c) q = Some (IoWriteNew st) /\ K q <= a.

Lemma no_write g base t0 c K n a b0 off size z :
  (0 < g_sector g)%Z -> NoDup (map b_loc (blocks (pre g base))) ->
  reuse_witness c K -> A.ainv (cs_cur (cinit g base t0)) c ->
  (forall a', a' < length (blocks (pre g base)) ->
     nth_error (cs_locs c) a' = nth_error (map b_loc (blocks (pre g base))) a') ->
  nth_error (blocks (pre g base)) a = Some b0 -> (off + size <= b_written b0)%Z -> (off <= z < off + size)%Z ->
  still_listed c K n a ->
  forall p u lc lo hi, p < n -> nth_error (cs_log c) p = Some (IoData u lc lo hi) ->
    covers (u, lc, lo, hi) (b_loc b0) z = false.
Proof.
  intros Hsec Hnl W AI Hloc Hb0 Hoff Hz Hstate p u lc lo hi Hpn Hp. pose proof W as [_ _ _ W4].
  destruct (covers (u, lc, lo, hi) (b_loc b0) z) eqn:Ec; [exfalso|reflexivity].
  cbn in Ec. apply andb_true_iff in Ec. destruct Ec as [Ec Ec3]. apply andb_true_iff in Ec. destruct Ec as [Ec1 Ec2].
  apply loc_eqb_eq in Ec1. subst lc. apply Z.leb_le in Ec2. apply Z.ltb_lt in Ec3.
  destruct (A.ai_data _ _ AI _ _ _ _ (nth_error_In _ _ Hp)) as (u' & U1 & U2 & U3).
  assert (Ha : a < length (blocks (pre g base))) by (apply nth_error_Some; congruence).
  assert (Hla : nth_error (cs_locs c) a = Some (b_loc b0)).
  { rewrite (Hloc a Ha), nth_error_map, Hb0. reflexivity. }
  destruct (lt_eq_lt_dec (up_abs u') a) as [[Hlt|Heq]|Hgt].
  - (* another restored block: regions are distinct *)
    assert (Hlt' : up_abs u' < length (blocks (pre g base))) by lia.
    rewrite (Hloc _ Hlt') in U2. rewrite (Hloc a Ha) in Hla.
    assert (up_abs u' = a); [|lia].
    eapply (proj1 (NoDup_nth_error _) Hnl); [rewrite map_length; exact Hlt'|congruence].
  - (* the restored block itself: allocations start at the restored cursor *)
    assert (Hc0 : nth_error (cs_cur (cinit g base t0)) a = Some (round_up (g_sector g) (b_written b0))).
    { cbn. unfold restored_cursors. rewrite nth_error_map. fold (pre g base). rewrite Hb0. reflexivity. }
    rewrite <- Heq in Hc0. pose proof (A.ai_off0 _ _ AI _ _ _ U1 Hc0) as Hge.
    pose proof (A.round_up_ge (g_sector g) (b_written b0) Hsec). lia.
  - (* a later block on the same region: only after a state file without block [a] was durable *)
    destruct Hstate as [Hno|(q & st & Hlw & Hq & HK)].
    + pose proof (W4 _ _ _ _ _ _ _ Hp U1 Hgt Hla) as Hkd. unfold kd in Hkd.
      destruct (dlw (firstn p (cs_log c))) as [w|] eqn:Ew; [|lia].
      destruct (dlw_firstn (cs_log c) p n w ltac:(lia) Ew) as (w' & Ew' & _). congruence.
    + exact (witness_later c K n q st a W Hlw Hq HK _ _ _ _ _ _ Hpn Hp U1 Hgt Hla).
Qed.

Lemma no_cover (L : log) n chd l z :
  (forall p u lc lo hi, p < n -> nth_error L p = Some (IoData u lc lo hi) -> covers (u, lc, lo, hi) l z = false) ->
  forall w, In w (data_durable (firstn n L) ++ select chd (data_pending (firstn n L))) -> covers w l z = false.
Proof.
  intros Hnw w Hw.
  rewrite surv_data in Hw. apply in_map_iff in Hw. destruct Hw as ([p w'] & Ew & Hin). cbn in Ew. subst w'.
  apply surv_in in Hin. destruct Hin as (u & lc & lo & hi & -> & Hp).
  apply E.nth_firstn in Hp. destruct Hp as [Hpn Hp]. eauto.
Qed.

Theorem SafeF_step g H base lf : length (g_locs g) < 65536 -> NoDup (g_locs g) -> (0 < g_sector g)%Z ->
  SafeF g H base -> creach g (lf_cfg lf) base (lf_t0 lf) (lf_c lf) ->
  SafeF g (H ++ [lf]) (crash_of base (lf_c lf) (lf_n lf) (lf_ch lf)).
Proof.
  intros Hg Hnd Hsec [Hbase HG] R.
  set (c := lf_c lf) in *. set (n := lf_n lf). set (chx := lf_ch lf).
  set (t0 := lf_t0 lf) in *. set (cfg := lf_cfg lf) in *.
  set (p0 := pre g base) in *.
  assert (HB : forall slot r a, In (slot, r) (m_index base) -> sres p0 r a ->
            good g H base r a /\ exists b, nth_error (blocks p0) a = Some b /\ (r_off r + r_size r <= b_written b)%Z).
  { intros slot r a Hin Hs. pose proof (HG _ _ _ Hin Hs) as Gd. split; [exact Gd|].
    destruct Gd as (j & lf0 & k & up & b & l & G1 & G2 & G3 & G4 & G5 & G6 & G7 & G8 & G9 & G10 & G11 & G12 & G13).
    exists b. auto. }
  pose proof (creach_reachinv g base Hg Hnd Hbase (good g H base) (fun r r0 a => good_same g H base r r0 a) HB
                (fun _ => True) (fun _ _ _ _ _ _ => I) (fun _ _ _ _ => I) cfg t0 c R) as [(ch & Sm & HSH) RC U M].
  destruct (life_facts g cfg base t0 c Hg Hnd Hbase R) as ((K & W) & AI & Hnds & Hloc & Ys & Zs & HY & HZ).
  fold p0 in Hloc, HY, HZ. pose proof W as [W1 W2 W3 W4].
  destruct (restart_shape g (m_state base)) as (_ & RS2 & _). fold (pre g base) in RS2. fold p0 in RS2.
  destruct RC as [[HSI [HU [HL [HP0 HF0]]]] Ho].
  destruct Hbase as [Hb1 Hb2]. fold (pre g base) in Hb1, Hb2. fold p0 in Hb1, Hb2.
  unfold SafeF, crash_of. fold c n chx.
  set (m' := crash_medium base (firstn n (cs_log c)) chx).
  pose proof (crash_index_cases base (cs_log c) n chx) as Hidx. fold m' in Hidx.
  (* an object of an earlier life, as long as its block is still listed *)
  assert (Hinh : forall r a i x, good g H base r a -> nth_error (blocks (pre g m')) i = Some x ->
            nth_error (cs_locs c) a = Some (b_loc x) -> (r_off r + r_size r <= b_written x)%Z ->
            still_listed c K n a -> good g (H ++ [lf]) m' r i).
  { intros r a i x (j & lf0 & k & up & b & l & G1 & G2 & G3 & G4 & G5 & G6 & G7 & G8 & G9 & G10 & G11 & G12 & G13)
      Hx Hla Hoff Hst. fold p0 in G10.
    assert (Ha : a < length (blocks p0)) by (apply nth_error_Some; congruence).
    assert (Hreg : b_loc x = l).
    { rewrite (Hloc a Ha), nth_error_map, G10 in Hla. cbn in Hla. inv Hla. reflexivity. }
    exists j, lf0, k, up, x, l. splits; auto.
    - apply E.nth_snoc_old. exact G1.
    - intros z Hz. rewrite hist_data_snoc, towner_app, towner_none; [apply G13; exact Hz|].
      subst l. apply (no_cover (cs_log c) n (c_data chx)).
      eapply (no_write g base t0 c K n a b); eauto. }
  destruct (crash_state_cases base _ n chx W1) as [Ex|[[Ex Hno]|(q & [[oldest bl] h] & Hqn & Hq & Ex & Hlw)]];
    fold m' in Ex.
  - assert (Epre : pre g m' = fst (restart (geom g) None)) by (unfold pre; rewrite Ex; reflexivity).
    split; [split; fold (pre g m'); rewrite Epre; constructor|].
    intros slot r i _ (j & e & S1 & _). rewrite Epre in S1. destruct j; discriminate.
  - (* the state file the life started with survived *)
    assert (Epre : pre g m' = p0) by (unfold pre, p0; rewrite Ex; reflexivity).
    split; [split; fold (pre g m'); rewrite Epre; assumption|].
    intros slot r i Hin Hs. rewrite Epre in Hs.
    destruct (Hidx _ _ Hin) as [Hb|(pos & Hp & Hpos)].
    + pose proof (HG _ _ _ Hb Hs) as Gd.
      destruct (proj2 (HB _ _ _ Hb Hs)) as (b & B1 & B2).
      assert (Hi : i < length (blocks p0)) by (apply nth_error_Some; congruence).
      apply (Hinh r i i b Gd); [rewrite Epre; exact B1| |exact B2|left; exact Hno].
      rewrite (Hloc i Hi), nth_error_map, B1. reflexivity.
    + exfalso. destruct Hs as (j & e & S1 & _). apply nth_error_In in S1.
      eapply (li_N _ _ _ _ _ _ _ _ _ _ HL); eauto.
  - (* a state file written in this life survived *)
    pose proof (W3 _ _ _ Hq) as Hst.
    set (alloc := fun (l : loc) (_ : Z) => geom g l).
    assert (Epre : pre g m' = fst (pbl_new alloc oldest bl)) by (unfold pre; rewrite Ex; reflexivity).
    destruct (mr_wr _ _ _ _ M _ _ _ Hq) as [Hnlst (kst & K1 & K2 & K3)]. cbn [snd] in Hnlst.
    split.
    { (* the restart restores duplicate-free seeds and regions *)
      split; fold (pre g m').
      - pose proof (restart_seeds_prefix (geom g) (Some ((oldest, bl), h))) as [rest Hrest]. cbn [fst] in Hrest.
        pose proof (li_D _ _ _ _ _ _ _ _ _ _ HL _ _ _ Hq) as Hndst.
        rewrite Hrest in Hndst. unfold pre. rewrite Ex. eapply NoDup_app_l; exact Hndst.
      - rewrite Epre. destruct (A.pbl_new_fields alloc oldest bl) as [_ Hf].
        destruct (restore_blocks alloc bl 0) as [[bl' seeds'] lasts'] eqn:Er.
        destruct (Hf _ _ _ eq_refl) as (F1 & _). rewrite F1.
        eapply (NoDup_pointwise _ _ Hnlst). intros i0 x0 Hi0. rewrite nth_error_map in Hi0 |- *.
        destruct (nth_error bl' i0) as [y|] eqn:Ey; [|discriminate]. cbn in Hi0. inv Hi0.
        destruct (A.restore_blocks_loc _ _ _ _ _ _ Er _ _ Ey) as (b & B1 & B2). rewrite B1. cbn. congruence. }
    intros slot r i Hin Hs. rewrite Epre in Hs.
    destruct (sres_state _ _ _ r oldest bl alloc i (K q) Hst Hs)
      as [D (q' & bq & bi & x & Q1 & Q2 & Q3 & Q4 & Q5 & Q6 & Q7)].
    set (a := K q + i) in *.
    assert (Hkst : kst = K q).
    { destruct (K1 q' bq _ Q1 Q2) as (j1 & J1 & J2). destruct (Hst q' bq Q1) as [_ L2].
      destruct (L2 _ Q2) as (j2 & J3 & J4).
      assert (j1 = j2) by exact (A.NoDup_nth_eq _ _ _ _ Hnds J1 J3). subst j2. rewrite J2 in J4. inv J4. lia. }
    subst kst.
    assert (Hcov : O.cover (fab r a) ((oldest, bl) : pstate) (K q) r -> (r_off r + r_size r <= b_written x)%Z).
    { intros Hc. destruct (Hc q' bq Q1 Q2) as (a'' & A1 & A2). rewrite fab_nth in A1. inv A1.
      rewrite Q6. unfold a in A2. apply (A2 ltac:(lia)). cbn [snd]. replace (K q + i - K q) with i by lia. exact Q3. }
    assert (Hinh' : good g H base r a -> (r_off r + r_size r <= b_written x)%Z -> good g (H ++ [lf]) m' r i).
    { intros Gd Hoff. apply (Hinh r a i x Gd); [rewrite Epre; exact Q4|rewrite Q5; exact Q7|exact Hoff|].
      right. exists q, ((oldest, bl), h). splits; auto. unfold a. lia. }
    destruct (Hidx _ _ Hin) as [Hb|(pos & Hp & Hpos)].
    + (* a record of the base index, resolved through the new state file *)
      assert (Hs0 : sres p0 r a).
      { pose proof (DES_seed _ _ _ _ D) as Hsd. apply sres_DES.
        rewrite HY, HZ in D. apply (DES_anti _ _ _ _ _ _ RS2) in D; [exact D|]. intros y Hy <-.
        rewrite HY in Hnds. eapply (nodup_app_disj _ _ _ Hnds); [|exact Hy].
        apply (proj2 (proj2 HP0) _ Hsd). apply in_map_iff. exists (slot, r). auto. }
      apply (Hinh' (HG _ _ _ Hb Hs0)). apply Hcov. eapply K3; eauto.
    + (* a record written in this life *)
      destruct (mr_log _ _ _ _ M _ _ _ Hpos) as (a0 & D0 & Cv & Cl).
      assert (a0 = a) by (eapply DES_fun; eauto). subst a0.
      pose proof (O.in_st_seeds ((oldest, bl) : pstate) q' bq (r_seed r) Q1 Q2) as Hseed.
      destruct (li_W _ _ _ _ _ _ _ _ _ _ HL _ _ _ _ Hq Hseed) as [_ HW].
      specialize (HW _ _ _ Hpos eq_refl).
      pose proof (E.durable_le_length (firstn q (cs_log c))) as Hdl. rewrite firstn_length in Hdl.
      assert (Hoff : (r_off r + r_size r <= b_written x)%Z).
      { apply Hcov. eapply K2; eauto. lia. }
      destruct Cl as [[(up & N1 & N2 & N3 & N4 & N5 & N6 & N7) Hdb]|[_ Gd]]; [|exact (Hinh' Gd Hoff)].
      destruct (E.firstn_prefix (cs_log c) q n) as [l' El]; [lia|].
      pose proof (E.durable_mono (firstn q (cs_log c)) l') as Hm. rewrite <- El in Hm.
      assert (Hdur : forall q0 l0 lo hi, nth_error (cs_log c) q0 = Some (IoData (r_up r) l0 lo hi) ->
                q0 < durable_upto (firstn n (cs_log c))).
      { intros q0 l0 lo hi Hq0. specialize (Hdb _ _ _ _ Hq0). lia. }
      assert (Hlu : nth_error (cs_locs c) (up_abs up) = Some (bs_loc bi)) by (rewrite N2; exact Q7).
      exists (length H), lf, (r_up r), up, x, (bs_loc bi). rewrite Epre. splits; auto.
      * apply E.nth_snoc_new.
      * intros z Hz. rewrite hist_data_snoc, towner_app, towner_map.
        unfold life_data. fold c n chx.
        rewrite (last_write_owner g cfg base t0 c n (c_data chx) (r_up r) up (bs_loc bi) z R (rinv_real _ _ _ _ Sm HSH)
                   N1 Hlu N7 Hdur); [reflexivity| |lia].
        (* no later block on the region was written: the surviving state file lists this one *)
        intros p' k' lo' hi' u' Hpn Hp' U1 Hgt.
        refine (witness_later c K n q ((oldest, bl), h) (up_abs up) W Hlw Hq _ _ _ _ _ _ _ Hpn Hp' U1 Hgt Hlu).
        rewrite N2. unfold a. lia.
Qed.

Theorem lives_SafeF g H m : length (g_locs g) < 65536 -> NoDup (g_locs g) -> (0 < g_sector g)%Z ->
  lives g H m -> SafeF g H m.
Proof.
  intros Hg Hnd Hsec HL. induction HL as [|H base lf HL IH R]; [apply SafeF_empty|]. apply SafeF_step; auto.
Qed.

Lemma pre_released g m : totalReleased (pre g m) = 0.
Proof. destruct (restart_shape g (m_state m)) as (_ & _ & R3 & _). exact R3. Qed.

Lemma resolves_sres g m slot r i : resolves g m slot r i ->
  exists slot', In (slot', r) (m_index m) /\ sres (pre g m) r i.
Proof.
  intros [H1 H2]. apply E.slot_get_in in H1. destruct H1 as [H1|[slot' H1]]; [discriminate|].
  exists slot'. split; [exact H1|]. apply resolve_sres; [apply pre_released|exact H2].
Qed.

Theorem repeated_crash g H m : length (g_locs g) < 65536 -> NoDup (g_locs g) -> (0 < g_sector g)%Z ->
  lives g H m -> forall slot r i, resolves g m slot r i -> good g H m r i.
Proof.
  intros Hg Hnd Hsec HL slot r i Hres. destruct (lives_SafeF _ _ _ Hg Hnd Hsec HL) as [_ S].
  destruct (resolves_sres _ _ _ _ _ Hres) as (slot' & Hin & Hs). eauto.
Qed.

(** … on the data device itself (life tags erased): the owner of every byte is that upload's tag *)
Theorem repeated_crash_bytes g H m : length (g_locs g) < 65536 -> NoDup (g_locs g) -> (0 < g_sector g)%Z ->
  lives g H m -> forall slot r i, resolves g m slot r i ->
  exists j lf k up b,
    nth_error H j = Some lf /\ nth_error (cs_ups (lf_c lf)) k = Some up /\
    up_key up = r_key r /\ up_off up = r_off r /\ up_size up = r_size r /\ up_state up = UpFin true /\
    nth_error (blocks (pre g m)) i = Some b /\ nth_error (cs_locs (lf_c lf)) (up_abs up) = Some (b_loc b) /\
    (r_off r + r_size r <= b_written b)%Z /\
    forall z, (r_off r <= z < r_off r + r_size r)%Z -> byte_owner (m_data m) (b_loc b) z None = Some k.
Proof.
  intros Hg Hnd Hsec HL slot r i Hres.
  destruct (repeated_crash _ _ _ Hg Hnd Hsec HL _ _ _ Hres)
    as (j & lf & k & up & b & l & G1 & G2 & G3 & G4 & G5 & G6 & G7 & G8 & G9 & G10 & G11 & G12 & G13).
  exists j, lf, k, up, b. subst l. splits; auto.
  intros z Hz. rewrite (lives_data _ _ _ HL).
  pose proof (towner_owner (hist_data H) (b_loc b) z None) as T. cbn [option_map] in T.
  rewrite <- T, (G13 z Hz). reflexivity.
Qed.

(** no overwrite after restart, for a life on the media of ANY history:
    once a data write of the new life has touched a byte of a location that resolved at the
    restart, that record never resolves again: the region was handed out again only after a
    state file without the block was durable (whether or not the write itself survives) *)
Theorem no_overwrite_after_restart g H base cfg t0 c :
  length (g_locs g) < 65536 -> NoDup (g_locs g) -> (0 < g_sector g)%Z ->
  lives g H base -> creach g cfg base t0 c ->
  forall slot r i b, resolves g base slot r i -> nth_error (blocks (pre g base)) i = Some b ->
  forall q k lo hi z, nth_error (cs_log c) q = Some (IoData k (b_loc b) lo hi) ->
    (r_off r <= z < r_off r + r_size r)%Z -> (lo <= z < hi)%Z ->
  forall n ch, q < n -> forall slot' i', ~ resolves g (crash_of base c n ch) slot' r i'.
Proof.
  intros Hg Hnd Hsec HLv R slot r i b Hres Hb q k lo hi z Hq Hz Hlohi n ch Hqn slot' i' Hres'.
  destruct (lives_SafeF _ _ _ Hg Hnd Hsec HLv) as [Hbase HG].
  destruct (resolves_sres _ _ _ _ _ Hres) as (s0 & Hin0 & Hs0).
  destruct (HG _ _ _ Hin0 Hs0) as (j & lf0 & k0 & up & b' & l & _ & _ & _ & _ & _ & _ & _ & _ & _ & G10 & _ & G12 & _).
  rewrite Hb in G10. inv G10.
  destruct (life_facts g cfg base t0 c Hg Hnd Hbase R) as ((K & W) & AI & Hnds & Hloc & Ys & Zs & HY & HZ).
  pose proof W as [W1 W2 W3 W4].
  assert (Hnw : still_listed c K n i -> False).
  { intros Hstate.
    pose proof (no_write g base t0 c K n i b' (r_off r) (r_size r) z Hsec (proj2 Hbase) W AI Hloc Hb G12 Hz Hstate
                  q k (b_loc b') lo hi Hqn Hq) as Hf.
    cbn in Hf. rewrite loc_eqb_refl in Hf. cbn in Hf. apply andb_false_iff in Hf.
    destruct Hf as [Hf|Hf]; [apply Z.leb_gt in Hf|apply Z.ltb_ge in Hf]; lia. }
  destruct (resolves_sres _ _ _ _ _ Hres') as (s1 & Hin1 & Hs1). unfold crash_of, pre in Hs1.
  destruct (crash_state_cases base _ n ch W1) as [Ex|[[_ Hno]|(q0 & [[oldest bl] h] & _ & Hq0 & Ex & Hlw)]].
  - rewrite Ex in Hs1. destruct Hs1 as (j1 & e1 & S1 & _). destruct j1; discriminate.
  - apply Hnw. left. exact Hno.
  - rewrite Ex in Hs1. pose proof (W3 _ _ _ Hq0) as Hst.
    destruct (sres_state _ _ _ r oldest bl _ i' (K q0) Hst Hs1) as [D _].
    assert (D0 : DES (cs_seeds c) (cs_elast c) r i).
    { rewrite HY, HZ. apply DES_mono. apply sres_DES. exact Hs0. }
    assert (i = K q0 + i') by (eapply DES_fun; eauto).
    apply Hnw. right. exists q0, ((oldest, bl), h). splits; auto. lia.
Qed.

Print Assumptions SafeF_step.
Print Assumptions repeated_crash.
Print Assumptions repeated_crash_bytes.
Print Assumptions no_overwrite_after_restart.
