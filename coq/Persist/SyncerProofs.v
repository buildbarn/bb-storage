(** Safety invariants of the combined transition system (all schedules). *)
From Coq Require Import List NArith ZArith Bool Arith Lia.
From BBS Require Import Persist.PBL Persist.PBLProofs Persist.Syncer.
Import ListNotations.

(** I1: block list invariant + validity of in-flight Put tokens *)
Definition ext (p : pbl) : nat := totalReleased p + length (blocks p).

Definition up_ok (p : pbl) (u : option (put_token * Z)) : Prop :=
  match u with Some (tok, _) => tok_ok p tok | None => True end.

Definition inv1 (s : sys) : Prop := pbl_inv (s_pbl s) /\ Forall (up_ok (s_pbl s)) (s_uploads s).

Lemma up_ok_mono p p' u : ext p <= ext p' -> up_ok p u -> up_ok p' u.
Proof.
  unfold ext, up_ok, tok_ok. destruct u as [[[|abs] sz]|]; auto. lia.
Qed.

Lemma ups_mono p p' us : ext p <= ext p' -> Forall (up_ok p) us -> Forall (up_ok p') us.
Proof. intros H F. eapply Forall_impl; [|exact F]. intros u. apply up_ok_mono. exact H. Qed.

Lemma clear_nth_ok p us k : Forall (up_ok p) us -> Forall (up_ok p) (clear_nth us k).
Proof.
  intros F. revert k. induction F as [|u r Hu F IH]; intros [|k]; cbn; constructor; auto.
  exact I.
Qed.

Lemma chan_mono_refl p : chan_mono p p.
Proof. apply chan_mono_same; reflexivity. Qed.

Lemma gps_ext p p' st : get_persistent_state p = Ok (p', st) -> ext p' = ext p.
Proof.
  unfold get_persistent_state. destruct (gps_loop _ _ _ _); [|discriminate].
  cbn. intros [= <-]. reflexivity.
Qed.

Lemma nsw_ext p p' : notify_state_written p = Ok p' -> ext p' = ext p.
Proof.
  unfold notify_state_written. destruct (_ <? _); [discriminate|].
  destruct (skipn _ _); [destruct (nc_block _ _)|]; intros [= <-]; reflexivity.
Qed.

Lemma nss_ext f p : ext (notify_sync_starting f p) = ext p.
Proof. unfold ext. cbn. rewrite map_length. reflexivity. Qed.

Lemma nsc_ext p : ext (notify_sync_completed p) = ext p.
Proof.
  unfold notify_sync_completed. destruct (_ =? _); [destruct (nc_block _ _)|];
    unfold ext; cbn; rewrite map_length; reflexivity.
Qed.

Definition pbl_step_ok (p p' : pbl) : Prop := pbl_inv p' /\ chan_mono p p' /\ ext p <= ext p'.

Lemma pbl_step_refl p : pbl_inv p -> pbl_step_ok p p.
Proof. intros I. split; [exact I|]. split; [apply chan_mono_refl|lia]. Qed.

Inductive wmove (cfg : config) (me : tid) (a : ans) (s : sys) : wpc -> sys -> option wpc -> Prop :=
| WmAcquire : s_store s = None -> wmove cfg me a s WAcquire (with_store s (Some me)) (Some WGetState)
| WmGetState p' st : get_persistent_state (s_pbl s) = Ok (p', st) ->
    wmove cfg me a s WGetState (with_pbl s p') (Some (WWriting st))
| WmWriteOk st : a_ok a = true ->
    wmove cfg me a s (WWriting st)
      (with_write s (mkWrec me st (length (releasedLog (s_pbl s)) + releasing (s_pbl s)))) (Some WWritten)
| WmWriteFail st : a_ok a = false ->
    wmove cfg me a s (WWriting st) (with_store s None) (Some (WSleep (s_now s + c_retry cfg)))
| WmWritten p' : notify_state_written (s_pbl s) = Ok p' ->
    wmove cfg me a s WWritten (with_store (with_pbl s p') None) None
| WmWake dl : (dl <= s_now s)%N -> wmove cfg me a s (WSleep dl) s (Some WAcquire).

Lemma wstep_cases {cfg me w a s r} : wstep cfg me w a s = Some r ->
  match r with
  | Ok (s1, w') => wmove cfg me a s w s1 w'
  | Panic => get_persistent_state (s_pbl s) = Panic \/ notify_state_written (s_pbl s) = Panic
  end.
Proof.
  unfold wstep. destruct w as [| |st| |dl].
  - destruct (s_store s) eqn:E; [discriminate|]. intros [= <-]. constructor. exact E.
  - destruct (get_persistent_state _) as [[p' st]|] eqn:E; intros [= <-]; [constructor; exact E|left; reflexivity].
  - destruct (a_ok a) eqn:E; intros [= <-]; constructor; exact E.
  - destruct (notify_state_written _) as [p'|] eqn:E; intros [= <-]; [constructor; exact E|right; reflexivity].
  - destruct (N.leb_spec dl (s_now s)) as [E|]; [|discriminate]. intros [= <-]. constructor. exact E.
Qed.

Lemma wstep_fields {cfg me w a s s1 w'} : wstep cfg me w a s = Some (Ok (s1, w')) ->
  exists p' st' ws',
    s1 = mkSys p' (s_now s) (s_last s) (s_cancel s) st' (s_r s) (s_p s) (s_uploads s) (s_sched s) ws'.
Proof. intros H. destruct (wstep_cases H); [..|destruct s]; eexists _, _, _; reflexivity. Qed.

Inductive rmove (cfg : config) (a : ans) (s : sys) : sys -> Prop :=
| RmStart : s_r s = RStart -> rmove cfg a s (with_r s (RWait (get_release_wakeup (s_pbl s))))
| RmWait ch : s_r s = RWait ch -> is_closed (heap (s_pbl s)) ch = true -> rmove cfg a s (with_r s (RW WAcquire))
| RmW w s1 w' : s_r s = RW w -> wstep cfg TR w a s = Some (Ok (s1, w')) ->
    rmove cfg a s (with_r s1 match w' with Some w1 => RW w1 | None => RStart end).

Lemma rstep_cases {cfg a s r} : rstep cfg a s = Some r ->
  match r with
  | Ok s' => rmove cfg a s s'
  | Panic => exists w, s_r s = RW w /\ wstep cfg TR w a s = Some Panic
  end.
Proof.
  unfold rstep. destruct (s_r s) as [|ch|w] eqn:Er.
  - intros [= <-]. constructor. exact Er.
  - destruct (is_closed _ _) eqn:E; [|discriminate]. intros [= <-]. econstructor; eassumption.
  - destruct (wstep cfg TR w a s) as [[[s1 [w'|]]|]|] eqn:Ew; [..|discriminate]; intros [= <-].
    1, 2: exact (RmW _ _ _ _ _ _ Er Ew).
    exists w. auto.
Qed.

Inductive p_jump (cfg : config) (a : ans) (s : sys) : ppc -> ppc -> Prop :=
| JStart : p_jump cfg a s PStart (PSelect (get_put_wakeup (s_pbl s)))
| JSelectT ch : is_closed (heap (s_pbl s)) ch = true ->
    p_jump cfg a s (PSelect ch) (PTimer (s_last s + c_interval cfg))
| JSelectI ch : is_closed (heap (s_pbl s)) ch = false -> p_jump cfg a s (PSelect ch) (PIdle ch)
| JIdleC ch : s_cancel s && (a_ok a || negb (is_closed (heap (s_pbl s)) ch)) = true ->
    p_jump cfg a s (PIdle ch) (PNotify false)
| JIdleT ch : s_cancel s && a_ok a = false -> is_closed (heap (s_pbl s)) ch = true ->
    p_jump cfg a s (PIdle ch) (PTimer (s_now s + c_interval cfg))
| JTimerC dl : s_cancel s && (a_ok a || negb ((dl <=? a_time a) && (a_time a <=? s_now s))%N) = true ->
    p_jump cfg a s (PTimer dl) (PNotify false)
| JSyncOk k f : a_ok a = true -> p_jump cfg a s (PSyncing k f) (PSyncRet k f)
| JSyncFail k f : a_ok a = false -> p_jump cfg a s (PSyncing k f) (PSyncSleep k f (s_now s + c_retry cfg))
| JSyncWake k f dl : (dl <= s_now s)%N -> p_jump cfg a s (PSyncSleep k f dl) (PSyncing k f).

Inductive pmove (cfg : config) (a : ans) (s : sys) : sys -> Prop :=
| PmJump pc pc' : s_p s = pc -> p_jump cfg a s pc pc' -> pmove cfg a s (with_p s pc')
| PmFire dl : s_p s = PTimer dl -> (dl <= a_time a)%N -> (a_time a <= s_now s)%N -> s_cancel s && a_ok a = false ->
    pmove cfg a s (with_p (with_fire s (a_time a)) (PNotify true))
| PmNotify keep : s_p s = PNotify keep ->
    pmove cfg a s (with_p (with_pbl s (notify_sync_starting false (s_pbl s))) (PSyncing keep false))
| PmClose : s_p s = PSyncRet false false ->
    pmove cfg a s (with_p (with_pbl s (notify_sync_starting true (notify_sync_completed (s_pbl s))))
                          (PSyncing false true))
| PmSynced keep final : s_p s = PSyncRet keep final -> negb keep && negb final = false ->
    pmove cfg a s (with_p (with_pbl s (notify_sync_completed (s_pbl s))) (PW keep WAcquire))
| PmW keep w s1 w' : s_p s = PW keep w -> wstep cfg TP w a s = Some (Ok (s1, w')) ->
    pmove cfg a s (with_p s1 match w' with Some w1 => PW keep w1 | None => if keep then PStart else PExit end).

Lemma pstep_cases {cfg a s r} : pstep cfg a s = Some r ->
  match r with
  | Ok s' => pmove cfg a s s'
  | Panic => exists keep w, s_p s = PW keep w /\ wstep cfg TP w a s = Some Panic
  end.
Proof.
  unfold pstep. destruct (s_p s) as [|ch|ch|dl|keep|keep final|keep final|keep final dl|keep w|] eqn:Ep.
  - intros [= <-]. apply (PmJump _ _ _ _ _ Ep). constructor.
  - destruct (is_closed _ _) eqn:E; intros [= <-]; apply (PmJump _ _ _ _ _ Ep); constructor; exact E.
  - destruct (s_cancel s && _) eqn:Ec; [|destruct (is_closed _ _) eqn:E; [|discriminate]];
      intros [= <-]; apply (PmJump _ _ _ _ _ Ep); constructor; auto.
    rewrite orb_false_r in Ec. exact Ec.
  - destruct (s_cancel s && _) eqn:Ec; [|destruct ((dl <=? a_time a)%N && _) eqn:Et; [|discriminate]]; intros [= <-].
    + apply (PmJump _ _ _ _ _ Ep). constructor. exact Ec.
    + rewrite orb_false_r in Ec. apply andb_true_iff in Et. destruct Et as [E1 E2].
      apply N.leb_le in E1, E2. exact (PmFire _ _ _ _ Ep E1 E2 Ec).
  - intros [= <-]. constructor. exact Ep.
  - destruct (a_ok a) eqn:E; intros [= <-]; apply (PmJump _ _ _ _ _ Ep); constructor; exact E.
  - destruct (negb keep && negb final) eqn:E; intros [= <-]; [|exact (PmSynced _ _ _ _ _ Ep E)].
    destruct keep, final; try discriminate E. constructor. exact Ep.
  - destruct (N.leb_spec dl (s_now s)) as [E|]; [|discriminate]. intros [= <-].
    apply (PmJump _ _ _ _ _ Ep). constructor. exact E.
  - destruct (wstep cfg TP w a s) as [[[s1 [w'|]]|]|] eqn:Ew; [..|discriminate]; intros [= <-].
    1, 2: exact (PmW _ _ _ _ _ _ _ Ep Ew).
    exists keep, w. auto.
  - discriminate.
Qed.

Lemma nss_step_ok f p0 p : pbl_step_ok p0 p -> pbl_step_ok p0 (notify_sync_starting f p).
Proof.
  intros [I [M E]]. split; [apply notify_sync_starting_inv; exact I|]. split; [exact M|]. rewrite nss_ext. exact E.
Qed.

Lemma nsc_step_ok p : pbl_inv p -> pbl_step_ok p (notify_sync_completed p).
Proof.
  intros I. split; [apply notify_sync_completed_inv; exact I|].
  split; [apply notify_sync_completed_mono; exact I|]. rewrite nsc_ext. lia.
Qed.

Lemma wstep_inv1 cfg me w a s r : inv1 s -> wstep cfg me w a s = Some r ->
  exists s' w', r = Ok (s', w') /\ pbl_step_ok (s_pbl s) (s_pbl s') /\ s_uploads s' = s_uploads s
    /\ s_r s' = s_r s /\ s_p s' = s_p s /\ s_now s' = s_now s /\ s_last s' = s_last s
    /\ s_sched s' = s_sched s /\ s_cancel s' = s_cancel s.
Proof.
  intros [I U] H. apply wstep_cases in H.
  destruct (get_persistent_state_inv _ I) as [pg [stg [Hg [Ig [_ [Hh [_ [_ [Hp Hr]]]]]]]]].
  destruct (notify_state_written_inv _ I) as [pn [Hn [In _]]].
  destruct r as [[s1 w']|]; [|destruct H; congruence].
  eexists _, _. split; [reflexivity|].
  destruct H as [E|p' st E|st E|st E|p' E|dl E]; cbn; splits; auto; try (apply pbl_step_refl; exact I).
  - rewrite Hg in E. injection E as <- <-. split; [exact Ig|]. split; [apply chan_mono_same; auto|].
    rewrite (gps_ext _ _ _ Hg). lia.
  - rewrite Hn in E. injection E as <-. split; [exact In|]. split; [eapply notify_state_written_mono; eauto|].
    rewrite (nsw_ext _ _ Hn). lia.
Qed.

Lemma rstep_pbl cfg a s r : inv1 s -> rstep cfg a s = Some r ->
  exists s', r = Ok s' /\ pbl_step_ok (s_pbl s) (s_pbl s') /\ s_uploads s' = s_uploads s.
Proof.
  intros II H. pose proof II as [I _]. apply rstep_cases in H. destruct r as [s'|].
  - exists s'. split; [reflexivity|]. destruct H as [_|ch _ _|w s1 w' _ Hw]; cbn.
    1, 2: split; [apply pbl_step_refl; exact I|reflexivity].
    destruct (wstep_inv1 _ _ _ _ _ _ II Hw) as [s2 [w2 [[= <- <-] [Hok [Hu _]]]]]. split; assumption.
  - destruct H as [w [_ Hw]]. destruct (wstep_inv1 _ _ _ _ _ _ II Hw) as [s2 [w2 [[=] _]]].
Qed.

Lemma pstep_pbl cfg a s r : inv1 s -> pstep cfg a s = Some r ->
  exists s', r = Ok s' /\ pbl_step_ok (s_pbl s) (s_pbl s') /\ s_uploads s' = s_uploads s.
Proof.
  intros II H. pose proof II as [I _]. apply pstep_cases in H. destruct r as [s'|].
  - exists s'. split; [reflexivity|].
    destruct H as [pc pc' _ _|dl _ _ _ _|keep _|_|keep final _ _|keep w s1 w' _ Hw]; cbn.
    1, 2: split; [apply pbl_step_refl; exact I|reflexivity].
    + split; [apply nss_step_ok, pbl_step_refl; exact I|reflexivity].
    + split; [apply nss_step_ok, nsc_step_ok; exact I|reflexivity].
    + split; [apply nsc_step_ok; exact I|reflexivity].
    + destruct (wstep_inv1 _ _ _ _ _ _ II Hw) as [s2 [w2 [[= <- <-] [Hok [Hu _]]]]]. split; assumption.
  - destruct H as [keep [w [_ Hw]]]. destruct (wstep_inv1 _ _ _ _ _ _ II Hw) as [s2 [w2 [[=] _]]].
Qed.

Lemma step_inv1 cfg s e r : inv1 s -> step cfg s e = Some r ->
  exists s', r = Ok s' /\ inv1 s' /\ chan_mono (s_pbl s) (s_pbl s').
Proof.
  intros II. pose proof II as [I U].
  (* a step that leaves the uploads alone and moves the block list as [pbl_step_ok] allows *)
  assert (K : forall s', pbl_step_ok (s_pbl s) (s_pbl s') -> s_uploads s' = s_uploads s ->
              exists s'', Ok s' = Ok s'' /\ inv1 s'' /\ chan_mono (s_pbl s) (s_pbl s'')).
  { intros s' [I' [M E]] Hu. exists s'. split; [reflexivity|].
    split; [split; [exact I'|rewrite Hu; eapply ups_mono; eauto]|exact M]. }
  destruct e as [alloc| |index size|k blk seed|d| |t a]; cbn [step].
  - (* PushBack *)
    intros [= <-]. apply K; [|reflexivity]. cbn. split; [apply push_back_inv; exact I|]. unfold push_back, ext.
    destruct (closedForWriting (s_pbl s)); [split; [apply chan_mono_refl|cbn; lia]|].
    destruct alloc; cbn; (split; [apply chan_mono_same; reflexivity|]); [rewrite app_length; cbn|]; lia.
  - (* PopFront *)
    destruct (blocks (s_pbl s)) eqn:Eb; [discriminate|].
    destruct (pop_front_inv _ I) as [p' [Hp [I' _]]]; [congruence|].
    rewrite Hp. intros [= <-]. apply K; [|reflexivity]. cbn.
    destruct (pop_front_mono _ _ I Hp) as [M [He _]]. split; [exact I'|]. split; [exact M|]. unfold ext. lia.
  - (* PutStart *)
    destruct (closedForWriting (s_pbl s) || (index <? length (blocks (s_pbl s)))) eqn:E; [|discriminate].
    destruct (put_start_ok index (s_pbl s)) as [tok [Ht Hok]].
    { apply orb_true_iff in E. destruct E as [E|E]; [left; exact E|right; apply Nat.ltb_lt; exact E]. }
    rewrite Ht. intros [= <-]. eexists. split; [reflexivity|]. cbn.
    split; [split; auto|apply chan_mono_refl].
    apply Forall_app. split; [exact U|]. constructor; [exact Hok|constructor].
  - (* Finalize *)
    destruct (nth_error (s_uploads s) k) as [[[tok sz]|]|] eqn:En; try discriminate.
    assert (tok_ok (s_pbl s) tok) as Hok.
    { apply nth_error_In in En. rewrite Forall_forall in U. apply (U _ En). }
    destruct (put_finalize_inv tok blk sz seed _ I Hok) as [p' [fr [Hf [I' [_ [_ [_ [_ [Ht Hl]]]]]]]]].
    rewrite Hf. intros [= <-]. eexists. split; [reflexivity|]. cbn.
    destruct (put_finalize_mono _ _ _ _ _ _ _ I Hf) as [M _].
    split; [split|]; auto.
    assert (Forall (up_ok p') (s_uploads s)) as U'.
    { eapply ups_mono; [|exact U]. unfold ext. lia. }
    apply clear_nth_ok. exact U'.
  - intros [= <-]. apply K; [apply pbl_step_refl; exact I|reflexivity].
  - intros [= <-]. apply K; [apply pbl_step_refl; exact I|reflexivity].
  - intros H. destruct t; [destruct (rstep_pbl _ _ _ _ II H) as [s' [-> [Hok Hu]]]
                          |destruct (pstep_pbl _ _ _ _ II H) as [s' [-> [Hok Hu]]]]; apply K; assumption.
Qed.

Lemma run_inv1 cfg tr : forall s r, inv1 s -> run cfg s tr = Some r -> exists s', r = Ok s' /\ inv1 s'.
Proof.
  induction tr as [|e tr IH]; intros s r I H; cbn in H.
  - injection H as <-. eauto.
  - destruct (step cfg s e) as [o|] eqn:Es; [|discriminate].
    destruct (step_inv1 _ _ _ _ I Es) as [s' [-> [I' _]]]. eapply IH; eauto.
Qed.

Lemma run_inv cfg (P : sys -> Prop) :
  (forall s e s', inv1 s -> P s -> step cfg s e = Some (Ok s') -> P s') ->
  forall tr s s', inv1 s -> P s -> run cfg s tr = Some (Ok s') -> P s'.
Proof.
  intros HP. induction tr as [|e tr IH]; intros s s' I1 Ps H; cbn in H.
  - injection H as <-. exact Ps.
  - destruct (step cfg s e) as [[s1|]|] eqn:Es; try discriminate.
    destruct (step_inv1 _ _ _ _ I1 Es) as [s2 [[= <-] [I1' _]]]. exact (IH s1 s' I1' (HP _ _ _ I1 Ps Es) H).
Qed.

Lemma init_inv1 alloc oldest init t0 : inv1 (init_sys (fst (pbl_new alloc oldest init)) t0).
Proof. split; [apply pbl_new_inv|constructor]. Qed.

Definition reachable (cfg : config) (alloc : loc -> Z -> bool) (oldest : N) (init : list bstate) (t0 : N)
  (s : sys) : Prop :=
  exists tr, run cfg (init_sys (fst (pbl_new alloc oldest init)) t0) tr = Some (Ok s).

Lemma reachable_inv1 cfg alloc oldest init t0 s : reachable cfg alloc oldest init t0 s -> inv1 s.
Proof.
  intros [tr H]. destruct (run_inv1 _ _ _ _ (init_inv1 alloc oldest init t0) H) as [s' [E I]].
  inversion E; subst. exact I.
Qed.

Theorem no_panic_all_schedules cfg alloc oldest init t0 tr :
  run cfg (init_sys (fst (pbl_new alloc oldest init)) t0) tr <> Some Panic.
Proof.
  intros H. destruct (run_inv1 _ _ _ _ (init_inv1 alloc oldest init t0) H) as [s' [E _]]. discriminate.
Qed.

Theorem wakeup_put_reach cfg alloc oldest init t0 s : reachable cfg alloc oldest init t0 s ->
  (synchronizedEpochs (s_pbl s) < length (epochSeeds (s_pbl s)) -> put_chan_closed (s_pbl s) = true) /\
  (synchronizedEpochs (s_pbl s) = length (epochSeeds (s_pbl s)) -> put_chan_closed (s_pbl s) = false).
Proof.
  intros R. destruct (reachable_inv1 _ _ _ _ _ _ R) as [I _].
  split; [apply inv_wakeup_put|apply inv_put_open]; exact I.
Qed.

Theorem wakeup_release_reach cfg alloc oldest init t0 s : reachable cfg alloc oldest init t0 s ->
  (toRelease (s_pbl s) <> [] -> release_chan_closed (s_pbl s) = true) /\
  (toRelease (s_pbl s) = [] -> release_chan_closed (s_pbl s) = false).
Proof.
  intros R. destruct (reachable_inv1 _ _ _ _ _ _ R) as [I _].
  split; [apply inv_wakeup_release|apply inv_release_open]; exact I.
Qed.

Theorem close_once_reach cfg alloc oldest init t0 s : reachable cfg alloc oldest init t0 s ->
  NoDup (ch_closed (heap (s_pbl s))).
Proof.
  intros R. destruct (reachable_inv1 _ _ _ _ _ _ R) as [I _]. exact (cw_nodup _ _ _ (i_chan _ I)).
Qed.

(** I2: channels the loops hold are current or already closed *)
Definition r_held_ok (s : sys) : Prop :=
  forall c, s_r s = RWait c ->
    c = get_release_wakeup (s_pbl s) \/ is_closed (heap (s_pbl s)) c = true.
Definition p_held_ok (s : sys) : Prop :=
  forall c, s_p s = PSelect c \/ s_p s = PIdle c ->
    c = get_put_wakeup (s_pbl s) \/ is_closed (heap (s_pbl s)) c = true.
Definition inv2 (s : sys) : Prop := r_held_ok s /\ p_held_ok s.

Lemma r_held_mono s s' : chan_mono (s_pbl s) (s_pbl s') -> s_r s' = s_r s -> r_held_ok s -> r_held_ok s'.
Proof.
  intros [_ [Hc [_ Hr]]] E H c Hc'. rewrite E in Hc'. destruct (H c Hc') as [->|Hcl].
  - destruct Hr as [Hr|Hr]; [left; symmetry; exact Hr|right; exact Hr].
  - right. apply Hc. exact Hcl.
Qed.

Lemma p_held_mono s s' : chan_mono (s_pbl s) (s_pbl s') -> s_p s' = s_p s -> p_held_ok s -> p_held_ok s'.
Proof.
  intros [_ [Hc [Hp _]]] E H c Hc'. rewrite E in Hc'. destruct (H c Hc') as [->|Hcl].
  - destruct Hp as [Hp|Hp]; [left; symmetry; exact Hp|right; exact Hp].
  - right. apply Hc. exact Hcl.
Qed.

Lemma rstep_fields {cfg a s s'} : rstep cfg a s = Some (Ok s') -> exists p' st' r' ws',
  s' = mkSys p' (s_now s) (s_last s) (s_cancel s) st' r' (s_p s) (s_uploads s) (s_sched s) ws'.
Proof.
  intros H. destruct (rstep_cases H) as [_|ch _ _|w s1 w' _ Hw]; [eexists _, _, _, _; reflexivity..|].
  destruct (wstep_fields Hw) as [p' [st' [ws' ->]]]. eexists _, _, _, _; reflexivity.
Qed.

Lemma pstep_fields {cfg a s s'} : pstep cfg a s = Some (Ok s') -> exists p' l' st' pc' sch' ws',
  s' = mkSys p' (s_now s) l' (s_cancel s) st' (s_r s) pc' (s_uploads s) sch' ws'.
Proof.
  intros H. destruct (pstep_cases H) as [pc pc' _ _|dl _ _ _ _|keep _|_|keep final _ _|keep w s1 w' _ Hw];
    [eexists _, _, _, _, _, _; reflexivity..|].
  destruct (wstep_fields Hw) as [p' [st' [ws' ->]]]. eexists _, _, _, _, _, _; reflexivity.
Qed.

Lemma rstep_frame cfg a s s' : inv1 s -> rstep cfg a s = Some (Ok s') -> s_p s' = s_p s.
Proof.
  intros _ H. destruct (rstep_fields H) as [p' [st' [r' [ws' ->]]]]. reflexivity.
Qed.

Lemma pstep_frame cfg a s s' : inv1 s -> pstep cfg a s = Some (Ok s') -> s_r s' = s_r s.
Proof.
  intros _ H. destruct (pstep_fields H) as [p' [l' [st' [pc' [sch' [ws' ->]]]]]].
  reflexivity.
Qed.

Definition is_env (e : event) : bool := match e with EStep _ _ => false | _ => true end.

Inductive emove (s : sys) : event -> sys -> Prop :=
| EmPushBack alloc : emove s (EPushBack alloc) (with_pbl s (fst (push_back alloc (s_pbl s))))
| EmPopFront b rest p' : blocks (s_pbl s) = b :: rest -> pop_front (s_pbl s) = Ok p' ->
    emove s EPopFront (with_pbl s p')
| EmPutStart index size tok :
    closedForWriting (s_pbl s) || (index <? length (blocks (s_pbl s))) = true -> put_start index (s_pbl s) = Ok tok ->
    emove s (EPutStart index size) (with_uploads s (s_uploads s ++ [Some (tok, size)]))
| EmFinalize k blk seed tok size p' fr :
    nth_error (s_uploads s) k = Some (Some (tok, size)) -> put_finalize tok blk size seed (s_pbl s) = Ok (p', fr) ->
    emove s (EFinalize k blk seed) (with_uploads (with_pbl s p') (clear_nth (s_uploads s) k))
| EmTick d : emove s (ETick d) (with_now s (s_now s + d))
| EmCancel : emove s ECancel (with_cancel s).

Lemma env_cases {cfg s e s'} : step cfg s e = Some (Ok s') -> is_env e = true -> emove s e s'.
Proof.
  intros H He. revert H. destruct e as [alloc| |index size|k blk seed|d| |t a]; [..|discriminate He]; cbn [step].
  - intros [= <-]. constructor.
  - destruct (blocks _) eqn:Eb; [discriminate|]. destruct (pop_front _) eqn:Ep; [|discriminate].
    intros [= <-]. econstructor; eassumption.
  - destruct (_ || _) eqn:Eg; [|discriminate]. destruct (put_start _ _) eqn:Et; [|discriminate].
    intros [= <-]. constructor; assumption.
  - destruct (nth_error _ _) as [[[tok sz]|]|] eqn:En; try discriminate.
    destruct (put_finalize _ _ _ _ _) as [[p' fr]|] eqn:Ef; [|discriminate].
    intros [= <-]. econstructor; eassumption.
  - intros [= <-]. constructor.
  - intros [= <-]. constructor.
Qed.

Lemma env_shape cfg s e s' : step cfg s e = Some (Ok s') -> is_env e = true ->
  exists p' n' c' u',
    s' = mkSys p' n' (s_last s) c' (s_store s) (s_r s) (s_p s) u' (s_sched s) (s_writes s) /\ (s_now s <= n')%N.
Proof.
  intros H He. destruct (env_cases H He); eexists _, _, _, _; (split; [reflexivity|]);
    try apply N.le_refl. apply N.le_add_r.
Qed.

Lemma not_step_env e : (forall t a, e <> EStep t a) -> is_env e = true.
Proof. intros H. destruct e; try reflexivity. exfalso. eapply H. reflexivity. Qed.

Lemma env_frame cfg s e s' : (forall t a, e <> EStep t a) -> step cfg s e = Some (Ok s') ->
  s_r s' = s_r s /\ s_p s' = s_p s.
Proof. intros Hne H. destruct (env_shape _ _ _ _ H (not_step_env _ Hne)) as [p' [n' [c' [u' [-> _]]]]]. split; reflexivity. Qed.

Lemma rstep_held cfg a s s' : rstep cfg a s = Some (Ok s') -> r_held_ok s'.
Proof.
  intros H c. destruct (rstep_cases H) as [_|ch _ _|w s1 [w'|] _ _]; cbn; intros [= <-].
  left. reflexivity.
Qed.

Lemma pstep_held cfg a s s' : inv1 s -> p_held_ok s -> pstep cfg a s = Some (Ok s') -> p_held_ok s'.
Proof.
  intros _ Hh H c.
  destruct (pstep_cases H) as [pc pc' Ep J|dl _ _ _ _|keep _|_|keep final _ _|keep w s1 [w'|] _ _]; cbn;
    [|try destruct keep; intros [[=]|[=]]..].
  (* only PStart -> PSelect and PSelect -> PIdle arrive at a counter that holds a channel *)
  destruct J; intros [[= <-]|[= <-]]; [left; reflexivity|apply Hh; left; exact Ep].
Qed.

Lemma step_inv2 cfg s e s' : inv1 s -> inv2 s -> step cfg s e = Some (Ok s') -> inv2 s'.
Proof.
  intros II [Hr Hp] Hs.
  destruct (step_inv1 _ _ _ _ II Hs) as [s1 [E [_ M]]]. inversion E; subst s1.
  destruct e as [alloc| |index size|k blk seed|d| |t a].
  1-6: (destruct (env_shape cfg s _ s' Hs eq_refl) as [p' [n' [c' [u' [-> _]]]]];
        split; [eapply r_held_mono|eapply p_held_mono]; eauto).
  destruct t; cbn [step] in Hs.
  - split; [eapply rstep_held; eauto|].
    eapply p_held_mono; eauto. eapply rstep_frame; eauto.
  - split; [|eapply pstep_held; eauto].
    eapply r_held_mono; eauto. eapply pstep_frame; eauto.
Qed.

Lemma init_inv2 p t0 : inv2 (init_sys p t0).
Proof. split; intros c H; cbn in H; [discriminate|destruct H; discriminate]. Qed.

(** A loop never waits on an open channel while work is pending. *)
Theorem no_missed_wakeup_reach cfg alloc oldest init t0 s : reachable cfg alloc oldest init t0 s ->
  (forall c, s_r s = RWait c -> c <> get_release_wakeup (s_pbl s) -> is_closed (heap (s_pbl s)) c = true) /\
  (forall c, s_p s = PSelect c \/ s_p s = PIdle c -> c <> get_put_wakeup (s_pbl s) ->
             is_closed (heap (s_pbl s)) c = true) /\
  (forall c, s_r s = RWait c -> toRelease (s_pbl s) <> [] -> is_closed (heap (s_pbl s)) c = true) /\
  (forall c, s_p s = PSelect c \/ s_p s = PIdle c ->
             synchronizedEpochs (s_pbl s) < length (epochSeeds (s_pbl s)) ->
             is_closed (heap (s_pbl s)) c = true).
Proof.
  intros R. destruct (reachable_inv1 _ _ _ _ _ _ R) as [I U]. destruct R as [tr H].
  destruct (run_inv cfg inv2 (step_inv2 cfg) tr _ _ (init_inv1 alloc oldest init t0) (init_inv2 _ t0) H) as [Hr Hp].
  splits.
  - intros c Hc Hne. destruct (Hr c Hc); [congruence|assumption].
  - intros c Hc Hne. destruct (Hp c Hc); [congruence|assumption].
  - intros c Hc Hw. destruct (Hr c Hc) as [->|]; [|assumption]. apply (inv_wakeup_release _ I Hw).
  - intros c Hc Hw. destruct (Hp c Hc) as [->|]; [|assumption]. apply (inv_wakeup_put _ I Hw).
Qed.

(** I4: the minimum epoch interval between sync schedule times *)
Fixpoint gaps_ok (i t0 : N) (l : list N) : Prop :=
  match l with
  | [] => True
  | x :: r => (hd t0 r + i <= x)%N /\ gaps_ok i t0 r
  end.

Definition inv4 (cfg : config) (t0 : N) (s : sys) : Prop :=
  (s_last s <= s_now s)%N /\ s_last s = hd t0 (s_sched s) /\ gaps_ok (c_interval cfg) t0 (s_sched s)
  /\ (forall dl, s_p s = PTimer dl -> (s_last s + c_interval cfg <= dl)%N).

Lemma env_frame_t cfg s e s' : (forall t a, e <> EStep t a) -> step cfg s e = Some (Ok s') ->
  s_last s' = s_last s /\ s_sched s' = s_sched s /\ (s_now s <= s_now s')%N.
Proof. intros Hne H. destruct (env_shape _ _ _ _ H (not_step_env _ Hne)) as [p' [n' [c' [u' [-> Hn]]]]]. splits; auto. Qed.

Lemma rstep_frame_t cfg a s s' : inv1 s -> rstep cfg a s = Some (Ok s') ->
  s_last s' = s_last s /\ s_sched s' = s_sched s /\ s_now s' = s_now s.
Proof.
  intros _ H. destruct (rstep_fields H) as [p' [st' [r' [ws' ->]]]]. auto.
Qed.

Lemma step_inv4 cfg t0 s e s' : inv1 s -> inv4 cfg t0 s -> step cfg s e = Some (Ok s') -> inv4 cfg t0 s'.
Proof.
  intros II [H1 [H2 [H3 H4]]] Hs. unfold inv4.
  destruct e as [alloc| |index size|k blk seed|d| |t a].
  1-6: (destruct (env_shape cfg s _ s' Hs eq_refl) as [p' [n' [c' [u' [-> Hn]]]]];
        cbn; splits; auto; lia).
  destruct t; cbn [step] in Hs.
  - destruct (rstep_fields Hs) as [p' [st' [r' [ws' ->]]]]. cbn. auto.
  - destruct (pstep_cases Hs) as [pc pc' Ep J|dl Ep E1 E2 _|keep _|_|keep final _ _|keep w s1 w' _ Hw]; cbn.
    3-5: splits; auto; intros dl' [=].
    + splits; auto. destruct J; intros dl' [= <-]; lia.
    + specialize (H4 dl Ep). splits; auto; [rewrite <- H2; lia|intros dl' [=]].
    + destruct (wstep_fields Hw) as [p' [st' [ws' ->]]]. cbn. splits; auto.
      destruct w' as [w'|]; [|destruct keep]; intros dl' [=].
Qed.

Lemma init_inv4 cfg p t0 : inv4 cfg t0 (init_sys p t0).
Proof. unfold inv4. cbn. splits; auto; try lia. intros dl H; discriminate. Qed.

(** Consecutive sync schedule times (the timer expiries stored in
    lastSynchronizationTime while running) are at least the minimum epoch
    interval apart, the first one at least one interval after construction. *)
Theorem min_interval_reach cfg alloc oldest init t0 s : reachable cfg alloc oldest init t0 s ->
  gaps_ok (c_interval cfg) t0 (s_sched s).
Proof.
  intros [tr H].
  apply (run_inv cfg (inv4 cfg t0) (step_inv4 cfg t0) tr _ _ (init_inv1 alloc oldest init t0) (init_inv4 cfg _ t0) H).
Qed.

(** I3: storeLock is held exactly by the loop that is between
    GetPersistentState and the end of writePersistentState *)
Definition holds (w : wpc) : bool :=
  match w with WGetState | WWriting _ | WWritten => true | _ => false end.
Definition r_holds (s : sys) : bool := match s_r s with RW w => holds w | _ => false end.
Definition p_holds (s : sys) : bool := match s_p s with PW _ w => holds w | _ => false end.
Definition inv3 (s : sys) : Prop :=
  s_store s = (if r_holds s then Some TR else if p_holds s then Some TP else None)
  /\ r_holds s && p_holds s = false.

Lemma env_frame_store cfg s e s' : (forall t a, e <> EStep t a) -> step cfg s e = Some (Ok s') ->
  s_store s' = s_store s.
Proof. intros Hne H. destruct (env_shape _ _ _ _ H (not_step_env _ Hne)) as [p' [n' [c' [u' [-> _]]]]]. reflexivity. Qed.

Lemma wstep_store cfg me w a s s1 w' : wstep cfg me w a s = Some (Ok (s1, w')) ->
  s_r s1 = s_r s /\ s_p s1 = s_p s /\
  match w with
  | WAcquire => s_store s = None /\ s_store s1 = Some me /\ w' = Some WGetState
  | WGetState => s_store s1 = s_store s /\ exists st, w' = Some (WWriting st)
  | WWriting _ => (s_store s1 = s_store s /\ w' = Some WWritten) \/ (s_store s1 = None /\ exists dl, w' = Some (WSleep dl))
  | WWritten => s_store s1 = None /\ w' = None
  | WSleep _ => s_store s1 = s_store s /\ w' = Some WAcquire
  end.
Proof.
  intros H. destruct (wstep_cases H) as [E|p' st E|st E|st E|p' E|dl E]; cbn; splits; eauto.
Qed.

(** a step of loop [me] leaves its [holds] flag and the lock alone, takes the free lock, or gives
    it back; I3 ([lock_ok]) survives each of the three, whichever loop moves *)
Definition lock_move (me : tid) (st st' : option tid) (h h' : bool) : Prop :=
  (h' = h /\ st' = st) \/ (h = false /\ st = None /\ h' = true /\ st' = Some me) \/
  (h = true /\ h' = false /\ st' = None).

Definition lock_ok (st : option tid) (hr hp : bool) : Prop :=
  st = (if hr then Some TR else if hp then Some TP else None) /\ hr && hp = false.

Lemma lock_ok_r st st' hr hr' hp : lock_ok st hr hp -> lock_move TR st st' hr hr' -> lock_ok st' hr' hp.
Proof.
  unfold lock_ok. intros [E B] [[-> ->]|[[-> [-> [-> ->]]]|[-> [-> ->]]]]; [auto| |].
  - destruct hp; [discriminate E|auto].
  - destruct hp; [discriminate B|auto].
Qed.

Lemma lock_ok_p st st' hr hp hp' : lock_ok st hr hp -> lock_move TP st st' hp hp' -> lock_ok st' hr hp'.
Proof.
  unfold lock_ok. intros [E B] [[-> ->]|[[-> [-> [-> ->]]]|[-> [-> ->]]]]; [auto| |].
  - destruct hr; [discriminate E|auto].
  - destruct hr; [discriminate B|auto].
Qed.

Lemma wstep_lock cfg me w a s s1 w' : wstep cfg me w a s = Some (Ok (s1, w')) ->
  lock_move me (s_store s) (s_store s1) (holds w) match w' with Some w1 => holds w1 | None => false end.
Proof.
  intros H. unfold lock_move.
  destruct (wstep_cases H) as [E|p' st E|st E|st E|p' E|dl E]; cbn; auto 7.
Qed.

Lemma step_inv3 cfg s e s' : inv3 s -> step cfg s e = Some (Ok s') -> inv3 s'.
Proof.
  intros I3 Hs.
  destruct e as [alloc| |index size|k blk seed|d| |t a].
  1-6: (destruct (env_shape cfg s _ s' Hs eq_refl) as [p' [n' [c' [u' [-> _]]]]]; exact I3).
  (* a loop outside writePersistentStateRetrying neither holds the lock nor touches it: I3 is then
     the same statement before and after, up to computation *)
  change (lock_ok (s_store s) (r_holds s) (p_holds s)) in I3.
  change (lock_ok (s_store s') (r_holds s') (p_holds s')).
  unfold r_holds, p_holds in *. destruct t; cbn [step] in Hs.
  - destruct (rstep_cases Hs) as [Er|ch Er _|w s1 w' Er Ew]; rewrite Er in I3; cbn.
    1, 2: exact I3.
    destruct (wstep_store _ _ _ _ _ _ _ Ew) as [_ [Hp _]]. pose proof (wstep_lock _ _ _ _ _ _ _ Ew) as Hm.
    rewrite Hp. destruct w'; exact (lock_ok_r _ _ _ _ _ I3 Hm).
  - destruct (pstep_cases Hs) as [pc pc' Ep J|dl Ep _ _ _|keep Ep|Ep|keep final Ep _|keep w s1 w' Ep Ew];
      rewrite Ep in I3; cbn.
    2-5: exact I3.
    + destruct J; exact I3.
    + destruct (wstep_store _ _ _ _ _ _ _ Ew) as [Hr _]. pose proof (wstep_lock _ _ _ _ _ _ _ Ew) as Hm.
      rewrite Hr. destruct w'; [|destruct keep]; exact (lock_ok_p _ _ _ _ _ I3 Hm).
Qed.

Lemma init_inv3 p t0 : inv3 (init_sys p t0).
Proof. unfold inv3. cbn. auto. Qed.

Lemma reachable_inv_all cfg alloc oldest init t0 s : reachable cfg alloc oldest init t0 s ->
  inv1 s /\ inv2 s /\ inv3 s /\ inv4 cfg t0 s.
Proof.
  intros R. pose proof R as [tr H]. pose proof (init_inv1 alloc oldest init t0) as I0.
  split; [exact (reachable_inv1 _ _ _ _ _ _ R)|]. split; [|split].
  - exact (run_inv cfg inv2 (step_inv2 cfg) tr _ _ I0 (init_inv2 _ t0) H).
  - exact (run_inv cfg inv3 (fun s e s' _ => step_inv3 cfg s e s') tr _ _ I0 (init_inv3 _ t0) H).
  - exact (run_inv cfg (inv4 cfg t0) (step_inv4 cfg t0) tr _ _ I0 (init_inv4 cfg _ t0) H).
Qed.

(** The release loop can take a step on its own, or waits for its I/O call to
    return, or sleeps after a failed write (retry), or waits for storeLock
    while the put loop holds it — and then the put loop is inside
    writePersistentState and is itself runnable or waiting for its I/O call
    (never for a timer). *)
Definition r_progress (cfg : config) (s : sys) : Prop :=
  r_internal cfg s = true \/ r_in_io s = true \/ r_in_timer s = true \/
  (s_r s = RW WAcquire /\ s_store s = Some TP /\ (p_in_io s = true \/ p_internal cfg s = true)).

Definition p_progress (cfg : config) (s : sys) : Prop :=
  p_internal cfg s = true \/ p_in_io s = true \/ p_in_timer s = true \/ s_p s = PExit \/
  (exists k, s_p s = PW k WAcquire /\ s_store s = Some TR /\ (r_in_io s = true \/ r_internal cfg s = true)).

Lemma holder_enabled_p cfg s : inv1 s -> p_holds s = true -> p_in_io s = true \/ p_internal cfg s = true.
Proof.
  intros [I _]. unfold p_holds, p_internal, p_in_io, p_in_timer, enabled. cbn [step]. unfold pstep.
  destruct (s_p s) as [| | | | | | | |k w|]; try discriminate.
  destruct w; try discriminate; cbn; intros _.
  - right. destruct (get_persistent_state_inv _ I) as [p' [st [-> _]]]. reflexivity.
  - left. reflexivity.
  - right. destruct (notify_state_written_inv _ I) as [p' [-> _]]. destruct k; reflexivity.
Qed.

Lemma holder_enabled_r cfg s : inv1 s -> r_holds s = true -> r_in_io s = true \/ r_internal cfg s = true.
Proof.
  intros [I _]. unfold r_holds, r_internal, r_in_io, r_in_timer, enabled. cbn [step]. unfold rstep.
  destruct (s_r s) as [| |w]; try discriminate.
  destruct w; try discriminate; cbn; intros _.
  - right. destruct (get_persistent_state_inv _ I) as [p' [st [-> _]]]. reflexivity.
  - left. reflexivity.
  - right. destruct (notify_state_written_inv _ I) as [p' [-> _]]. reflexivity.
Qed.

Theorem release_progress_reach cfg alloc oldest init t0 s : reachable cfg alloc oldest init t0 s ->
  toRelease (s_pbl s) <> [] -> r_progress cfg s.
Proof.
  intros R Hw. pose proof (no_missed_wakeup_reach _ _ _ _ _ _ R) as [_ [_ [Hc _]]].
  destruct (reachable_inv_all _ _ _ _ _ _ R) as [I1 [_ [[I3a I3b] _]]].
  pose proof (holder_enabled_r cfg s I1) as Hr. pose proof (holder_enabled_p cfg s I1) as Hp.
  unfold r_progress, r_internal, r_in_io, r_in_timer, enabled in *. cbn [step] in *. unfold rstep, r_holds in *.
  destruct (s_r s) as [|c|w] eqn:Er.
  - left. reflexivity.
  - left. rewrite (Hc c eq_refl Hw). reflexivity.
  - destruct w; cbn in *.
    + destruct (s_store s) as [t|]; [|left; reflexivity].
      right. right. right. destruct (p_holds s); [|discriminate]. injection I3a as ->. auto.
    + destruct Hr; auto.
    + right. left. reflexivity.
    + destruct Hr; auto.
    + right. right. left. reflexivity.
Qed.

Theorem put_progress_reach cfg alloc oldest init t0 s : reachable cfg alloc oldest init t0 s ->
  synchronizedEpochs (s_pbl s) < length (epochSeeds (s_pbl s)) -> p_progress cfg s.
Proof.
  intros R Hw. pose proof (no_missed_wakeup_reach _ _ _ _ _ _ R) as [_ [_ [_ Hc]]].
  destruct (reachable_inv_all _ _ _ _ _ _ R) as [I1 [_ [[I3a I3b] _]]].
  pose proof (holder_enabled_r cfg s I1) as Hr. pose proof (holder_enabled_p cfg s I1) as Hp.
  unfold p_progress, p_internal, p_in_io, p_in_timer, enabled in *. cbn [step] in *. unfold pstep, p_holds in *.
  destruct (s_p s) as [|ch|ch|dl|keep|keep final|keep final|keep final dl|keep w|] eqn:Ep.
  - left. reflexivity.
  - left. destruct (is_closed _ _); reflexivity.
  - left. rewrite (Hc ch (or_intror eq_refl) Hw). cbn. destruct (s_cancel s && _); reflexivity.
  - right. right. left. reflexivity.
  - left. reflexivity.
  - right. left. reflexivity.
  - left. destruct (negb keep && negb final); reflexivity.
  - right. right. left. reflexivity.
  - destruct w; cbn in *.
    + destruct (s_store s) as [t|]; [|left; reflexivity].
      right. right. right. right. exists keep. destruct (r_holds s); [|discriminate]. injection I3a as ->. auto.
    + destruct Hp; auto.
    + right. left. reflexivity.
    + destruct Hp; auto.
    + right. right. left. reflexivity.
  - right. right. right. left. reflexivity.
Qed.

(** The release loop's step function does not mention minimumEpochInterval. *)
Theorem release_independent_of_interval cfg cfg' a s :
  c_retry cfg = c_retry cfg' -> rstep cfg a s = rstep cfg' a s.
Proof.
  intros E. unfold rstep. destruct (s_r s) as [| |w]; try reflexivity.
  unfold wstep. destruct w; try reflexivity. rewrite E. reflexivity.
Qed.

Theorem failed_write_is_retried cfg s st t :
  s_r s = RW (WWriting st) ->
  exists s1, step cfg s (EStep TR (mkAns false t)) = Some (Ok s1)
    /\ s_r s1 = RW (WSleep (s_now s + c_retry cfg)) /\ s_store s1 = None /\ s_pbl s1 = s_pbl s
    /\ (forall s2 a, step cfg s1 (EStep TR a) = Some (Ok s2) -> s_r s2 = RW WAcquire).
Proof.
  intros Er. cbn [step]. unfold rstep. rewrite Er. cbn. eexists. split; [reflexivity|]. cbn.
  splits; auto. intros s2 a. unfold rstep. cbn.
  destruct (_ <=? _)%N; [|discriminate]. intros [= <-]; reflexivity.
Qed.

Theorem failed_sync_is_retried cfg s keep final t :
  s_p s = PSyncing keep final ->
  exists s1, step cfg s (EStep TP (mkAns false t)) = Some (Ok s1)
    /\ s_p s1 = PSyncSleep keep final (s_now s + c_retry cfg) /\ s_pbl s1 = s_pbl s
    /\ (forall s2 a, step cfg s1 (EStep TP a) = Some (Ok s2) -> s_p s2 = PSyncing keep final).
Proof.
  intros Ep. cbn [step]. unfold pstep. rewrite Ep. cbn. eexists. split; [reflexivity|]. cbn.
  splits; auto. intros s2 a. unfold pstep. cbn.
  destruct (_ <=? _)%N; [|discriminate]. intros [= <-]; reflexivity.
Qed.

Definition w_dist (w : wpc) : nat :=
  match w with WWritten => 1 | WWriting _ => 2 | WGetState => 3 | WAcquire => 4 | WSleep _ => 5 end.
Definition r_dist (s : sys) : nat :=
  match s_r s with RStart => 6 | RWait _ => 5 | RW w => w_dist w end.
Definition p_dist (s : sys) : nat :=
  match s_p s with
  | PExit => 0
  | PW _ w => w_dist w
  | PSyncRet k f => if negb k && negb f then 8 else 5
  | PSyncing k f => if negb k && negb f then 9 else 6
  | PSyncSleep k f _ => if negb k && negb f then 10 else 7
  | PNotify k => if k then 7 else 10
  | PTimer _ => 11
  | PIdle _ => 12
  | PSelect _ => 13
  | PStart => 14
  end.

(** the step is the failure of an I/O call *)
Definition r_fails (s : sys) (a : ans) : bool := r_in_io s && negb (a_ok a).
Definition p_fails (s : sys) (a : ans) : bool := p_in_io s && negb (a_ok a).

Lemma r_rank_step cfg s a s' : inv1 s -> step cfg s (EStep TR a) = Some (Ok s') ->
  if r_fails s a then r_dist s' <= r_dist s + 3
  else r_dist s' < r_dist s \/
       (s_r s = RW WWritten /\ s_r s' = RStart /\
        releasedLog (s_pbl s') = releasedLog (s_pbl s) ++ firstn (releasing (s_pbl s)) (toRelease (s_pbl s))).
Proof.
  intros [I _] H. cbn [step] in H. unfold r_fails, r_in_io, r_dist.
  destruct (rstep_cases H) as [Er|ch Er _|w s1 w' Er Ew]; rewrite Er; cbn.
  1, 2: repeat constructor.
  destruct (wstep_cases Ew) as [E|p' st E|st E|st E|p' E|dl E]; cbn; rewrite ?E; cbn.
  5:{ destruct (notify_state_written_inv _ I) as [p1 [Hn [_ [Hl _]]]]. rewrite Hn in E. injection E as <-.
      right. splits; auto. }
  all: repeat constructor.
Qed.

Lemma p_rank_step cfg s a s' : inv1 s -> step cfg s (EStep TP a) = Some (Ok s') ->
  if p_fails s a then p_dist s' <= p_dist s + 3
  else p_dist s' < p_dist s \/
       (exists k, s_p s = PW k WWritten /\ s_p s' = (if k then PStart else PExit) /\
        releasedLog (s_pbl s') = releasedLog (s_pbl s) ++ firstn (releasing (s_pbl s)) (toRelease (s_pbl s))).
Proof.
  intros [I _] H. cbn [step] in H. unfold p_fails, p_in_io, p_dist.
  destruct (pstep_cases H) as [pc pc' Ep J|dl Ep _ _ _|keep Ep|Ep|keep final Ep E|keep w s1 w' Ep Ew];
    rewrite Ep; cbn.
  - destruct J as [|ch E|ch E|ch E|ch E E'|dl E|k f E|k f E|k f dl E]; cbn; rewrite ?E; cbn;
      try destruct k, f; cbn; repeat constructor.
  - repeat constructor.
  - destruct keep; cbn; repeat constructor.
  - repeat constructor.
  - rewrite E. repeat constructor.
  - destruct (wstep_cases Ew) as [E|p' st E|st E|st E|p' E|dl E]; cbn; rewrite ?E; cbn.
    5:{ destruct (notify_state_written_inv _ I) as [p1 [Hn [_ [Hl _]]]]. rewrite Hn in E. injection E as <-.
        right. exists keep. splits; auto. }
    all: repeat constructor.
Qed.

Lemma r_rank_frame cfg s e s' : inv1 s -> (forall a, e <> EStep TR a) -> step cfg s e = Some (Ok s') ->
  r_dist s' = r_dist s.
Proof.
  intros II Hne Hs. unfold r_dist. destruct e as [alloc| |index size|k blk seed|d| |t a].
  1-6: (destruct (env_shape cfg s _ s' Hs eq_refl) as [p' [n' [c' [u' [-> _]]]]]; reflexivity).
  destruct t; [exfalso; eapply Hne; reflexivity|]. cbn [step] in Hs.
  rewrite (pstep_frame _ _ _ _ II Hs). reflexivity.
Qed.

Lemma p_rank_frame cfg s e s' : inv1 s -> (forall a, e <> EStep TP a) -> step cfg s e = Some (Ok s') ->
  p_dist s' = p_dist s.
Proof.
  intros II Hne Hs. unfold p_dist. destruct e as [alloc| |index size|k blk seed|d| |t a].
  1-6: (destruct (env_shape cfg s _ s' Hs eq_refl) as [p' [n' [c' [u' [-> _]]]]]; reflexivity).
  destruct t; [|exfalso; eapply Hne; reflexivity]. cbn [step] in Hs.
  rewrite (rstep_frame _ _ _ _ II Hs). reflexivity.
Qed.

Theorem release_rank_reach cfg alloc oldest init t0 s : reachable cfg alloc oldest init t0 s ->
  (forall a s', step cfg s (EStep TR a) = Some (Ok s') ->
     if r_fails s a then r_dist s' <= r_dist s + 3
     else r_dist s' < r_dist s \/
          (s_r s = RW WWritten /\ s_r s' = RStart /\
           releasedLog (s_pbl s') = releasedLog (s_pbl s) ++ firstn (releasing (s_pbl s)) (toRelease (s_pbl s))))
  /\ (forall e s', (forall a, e <> EStep TR a) -> step cfg s e = Some (Ok s') -> r_dist s' = r_dist s).
Proof.
  intros R. pose proof (reachable_inv1 _ _ _ _ _ _ R) as II. split.
  - intros a s'. apply r_rank_step. exact II.
  - intros e s'. apply r_rank_frame. exact II.
Qed.

Theorem put_rank_reach cfg alloc oldest init t0 s : reachable cfg alloc oldest init t0 s ->
  (forall a s', step cfg s (EStep TP a) = Some (Ok s') ->
     if p_fails s a then p_dist s' <= p_dist s + 3
     else p_dist s' < p_dist s \/
          (exists k, s_p s = PW k WWritten /\ s_p s' = (if k then PStart else PExit) /\
           releasedLog (s_pbl s') = releasedLog (s_pbl s) ++ firstn (releasing (s_pbl s)) (toRelease (s_pbl s))))
  /\ (forall e s', (forall a, e <> EStep TP a) -> step cfg s e = Some (Ok s') -> p_dist s' = p_dist s).
Proof.
  intros R. pose proof (reachable_inv1 _ _ _ _ _ _ R) as II. split.
  - intros a s'. apply p_rank_step. exact II.
  - intros e s'. apply p_rank_frame. exact II.
Qed.
