(** Invariants of the persistent block list, preserved by every method for
    every caller (no assumption about the syncer loops). *)
From Coq Require Import List NArith ZArith Bool Arith Lia.
From BBS Require Import Persist.PBL.
Import ListNotations.

Ltac splits := repeat match goal with |- _ /\ _ => split end.

Record chan_wf (h : chans) (a b : nchan) : Prop := mkChanWf {
  cw_a_lt : nc_chan a < ch_next h;
  cw_b_lt : nc_chan b < ch_next h;
  cw_ne : nc_chan a <> nc_chan b;
  cw_closed_lt : forall c, In c (ch_closed h) -> c < ch_next h;
  cw_nodup : NoDup (ch_closed h);
  cw_a_blk : nc_blocking a = negb (is_closed h (nc_chan a));
  cw_b_blk : nc_blocking b = negb (is_closed h (nc_chan b));
  cw_stale : forall c, c < ch_next h -> c <> nc_chan a -> c <> nc_chan b -> is_closed h c = true
}.

Lemma is_closed_in h c : is_closed h c = true <-> In c (ch_closed h).
Proof.
  unfold is_closed. rewrite existsb_exists. split.
  - intros [x [Hi He]]. apply Nat.eqb_eq in He. subst. exact Hi.
  - intros Hi. exists c. split; [exact Hi|apply Nat.eqb_refl].
Qed.

Lemma is_closed_false h c : is_closed h c = false <-> ~ In c (ch_closed h).
Proof.
  rewrite <- is_closed_in. destruct (is_closed h c); split; congruence.
Qed.

Lemma chan_wf_sym h a b : chan_wf h a b -> chan_wf h b a.
Proof.
  intros [H1 H2 H3 H4 H5 H6 H7 H8]. constructor; auto.
Qed.

Lemma wf_block_a h a b :
  chan_wf h a b ->
  chan_wf (snd (nc_block a h)) (fst (nc_block a h)) b
  /\ nc_blocking (fst (nc_block a h)) = true
  /\ ch_next h <= ch_next (snd (nc_block a h))
  /\ ch_closed (snd (nc_block a h)) = ch_closed h.
Proof.
  intros W. destruct W as [H1 H2 H3 H4 H5 H6 H7 H8].
  unfold nc_block. destruct (nc_blocking a) eqn:Hb; cbn.
  - splits; auto. constructor; auto; congruence.
  - splits; auto; try lia.
    constructor; cbn; auto; try lia.
    + intros c Hc. specialize (H4 c Hc). lia.
    + unfold is_closed. cbn. fold (is_closed h (ch_next h)).
      destruct (is_closed h (ch_next h)) eqn:E; [|reflexivity].
      apply is_closed_in in E. apply H4 in E. lia.
    + intros c Hc Hn1 Hn2. unfold is_closed. cbn. fold (is_closed h c).
      destruct (Nat.eq_dec c (nc_chan a)) as [->|Hne].
      * destruct (is_closed h (nc_chan a)); [reflexivity|discriminate].
      * apply H8; [lia|exact Hne|exact Hn2].
Qed.

Lemma wf_unblock_a h a b :
  chan_wf h a b ->
  exists a' h', nc_unblock a h = Ok (a', h')
    /\ chan_wf h' a' b /\ nc_blocking a' = false /\ nc_chan a' = nc_chan a
    /\ ch_next h' = ch_next h
    /\ (forall c, is_closed h c = true -> is_closed h' c = true).
Proof.
  intros W. destruct W as [H1 H2 H3 H4 H5 H6 H7 H8].
  unfold nc_unblock. destruct (nc_blocking a) eqn:Hb.
  - destruct (is_closed h (nc_chan a)) eqn:Hc; [discriminate|].
    eexists _, _. split; [reflexivity|]. cbn. splits; auto.
    + constructor; cbn; auto.
      * intros c [<-|Hc']; auto.
      * constructor; [apply is_closed_false; exact Hc|exact H5].
      * unfold is_closed. cbn. rewrite Nat.eqb_refl. reflexivity.
      * unfold is_closed. cbn. fold (is_closed h (nc_chan b)).
        destruct (Nat.eqb (nc_chan b) (nc_chan a)) eqn:E.
        -- apply Nat.eqb_eq in E. congruence.
        -- exact H7.
      * intros c Hc1 Hc2 Hc3. unfold is_closed. cbn. fold (is_closed h c).
        rewrite (H8 c Hc1 Hc2 Hc3). apply orb_true_r.
    + intros c Hcc. unfold is_closed. cbn. fold (is_closed h c). rewrite Hcc. apply orb_true_r.
  - eexists _, _. split; [reflexivity|]. splits; auto. constructor; auto; congruence.

Qed.

Record pbl_inv (s : pbl) : Prop := mkPblInv {
  i_len : length (epochLast s) = length (epochSeeds s);
  i_sum : total_epoch_count (blocks s) = length (epochSeeds s);
  i_sync1 : synchronizedEpochs s <= synchronizingEpochs s;
  i_sync2 : synchronizingEpochs s <= length (epochSeeds s);
  i_rel : releasing s <= length (toRelease s);
  i_chan : chan_wf (heap s) (putWakeup s) (releaseWakeup s);
  (** blocking (channel open) exactly when all work has been absorbed *)
  i_put_iff : nc_blocking (putWakeup s) = (synchronizedEpochs s =? length (epochSeeds s));
  i_rel_iff : nc_blocking (releaseWakeup s) = match toRelease s with [] => true | _ => false end
}.

Lemma inv_put_chan s : pbl_inv s ->
  put_chan_closed s = negb (synchronizedEpochs s =? length (epochSeeds s)).
Proof.
  intros I. unfold put_chan_closed, get_put_wakeup.
  rewrite <- (i_put_iff s I), (cw_a_blk _ _ _ (i_chan s I)). symmetry. apply negb_involutive.
Qed.

Lemma inv_wakeup_put s : pbl_inv s ->
  synchronizedEpochs s < length (epochSeeds s) -> put_chan_closed s = true.
Proof.
  intros I Hlt. rewrite (inv_put_chan s I).
  destruct (Nat.eqb_spec (synchronizedEpochs s) (length (epochSeeds s))); [lia|reflexivity].
Qed.

Lemma inv_put_open s : pbl_inv s ->
  synchronizedEpochs s = length (epochSeeds s) -> put_chan_closed s = false.
Proof. intros I He. rewrite (inv_put_chan s I), He, Nat.eqb_refl. reflexivity. Qed.

Lemma inv_release_chan s : pbl_inv s ->
  release_chan_closed s = match toRelease s with [] => false | _ => true end.
Proof.
  intros I. unfold release_chan_closed, get_release_wakeup.
  pose proof (cw_b_blk _ _ _ (i_chan s I)) as Hb. rewrite (i_rel_iff s I) in Hb.
  destruct (is_closed _ _), (toRelease s); try reflexivity; discriminate Hb.
Qed.

Lemma inv_wakeup_release s : pbl_inv s ->
  toRelease s <> [] -> release_chan_closed s = true.
Proof. intros I Hne. rewrite (inv_release_chan s I). destruct (toRelease s); [congruence|reflexivity]. Qed.

Lemma inv_release_open s : pbl_inv s ->
  toRelease s = [] -> release_chan_closed s = false.
Proof. intros I He. rewrite (inv_release_chan s I), He. reflexivity. Qed.

Lemma restore_lengths alloc init n bl seeds lasts :
  restore_blocks alloc init n = (bl, seeds, lasts) ->
  length lasts = length seeds /\ total_epoch_count bl = length seeds.
Proof.
  revert n bl seeds lasts. induction init as [|bs rest IH]; intros n bl seeds lasts H; cbn in H.
  - inversion H. auto.
  - destruct (alloc (bs_loc bs) (bs_off bs)).
    + destruct (restore_blocks alloc rest (S n)) as [[bl' seeds'] lasts'] eqn:E.
      inversion H; subst. destruct (IH _ _ _ _ E) as [H1 H2].
      rewrite !app_length, repeat_length. split; [lia|].
      unfold total_epoch_count in *. cbn. lia.
    + inversion H. auto.
Qed.

Lemma pbl_new_inv alloc oldest init : pbl_inv (fst (pbl_new alloc oldest init)).
Proof.
  unfold pbl_new. destruct (restore_blocks alloc init 0) as [[bl seeds] lasts] eqn:E.
  destruct (restore_lengths _ _ _ _ _ _ E) as [H1 H2]. cbn.
  constructor; cbn; auto; try lia.
  - constructor; cbn; auto; try lia.
    all: try (intros; lia). all: try constructor. all: try (intros c []).
  - symmetry. apply Nat.eqb_refl.
Qed.

Lemma total_app a b : total_epoch_count (a ++ b) = total_epoch_count a + total_epoch_count b.
Proof. induction a; cbn; [reflexivity|]. unfold total_epoch_count in *. cbn. lia. Qed.

Lemma set_written_epochs bs i w : total_epoch_count (set_written bs i w) = total_epoch_count bs.
Proof.
  revert i. induction bs as [|b r IH]; intros [|i]; cbn; auto.
  all: unfold total_epoch_count in *; cbn.
  all: try (destruct (b_written b <? w)%Z; reflexivity).
  all: try (rewrite IH; reflexivity).
Qed.

Lemma set_written_length bs i w : length (set_written bs i w) = length bs.
Proof. revert i. induction bs as [|b r IH]; intros [|i]; cbn; auto. Qed.

Lemma bump_epochs bs : bs <> [] ->
  total_epoch_count (bump_last_epoch_count bs) = S (total_epoch_count bs).
Proof.
  induction bs as [|b r IH]; [congruence|]. intros _.
  destruct r as [|b' r'].
  - cbn. unfold total_epoch_count. cbn. lia.
  - change (bump_last_epoch_count (b :: b' :: r')) with (b :: bump_last_epoch_count (b' :: r')).
    unfold total_epoch_count in *. cbn [fold_right]. rewrite IH by congruence. cbn. lia.
Qed.

Lemma map_epochs f bs : (forall b, b_epochs (f b) = b_epochs b) ->
  total_epoch_count (map f bs) = total_epoch_count bs.
Proof.
  intros Hf. induction bs as [|b r IH]; cbn; [reflexivity|].
  unfold total_epoch_count in *. cbn. rewrite Hf, IH. reflexivity.
Qed.

Lemma push_back_inv alloc s : pbl_inv s -> pbl_inv (fst (push_back alloc s)).
Proof.
  intros I. unfold push_back. destruct (closedForWriting s); [exact I|].
  destruct alloc; [|exact I]. cbn. destruct I. constructor; cbn; auto.
  rewrite total_app. unfold total_epoch_count at 2. cbn. lia.
Qed.

Lemma notify_sync_starting_inv f s : pbl_inv s -> pbl_inv (notify_sync_starting f s).
Proof.
  intros I. destruct I. constructor; cbn; auto; try lia.
  rewrite map_epochs; auto.
Qed.

Lemma notify_sync_completed_inv s : pbl_inv s -> pbl_inv (notify_sync_completed s).
Proof.
  intros I. pose proof I as I0. destruct I. unfold notify_sync_completed.
  destruct (Nat.eqb_spec (synchronizingEpochs s) (length (epochSeeds s))) as [He|Hne].
  - pose proof (wf_block_a _ _ _ i_chan0) as [W [Hb _]].
    destruct (nc_block (putWakeup s) (heap s)) as [pw h1]. cbn in *.
    constructor; cbn; auto; try lia.
    + rewrite map_epochs; auto.
    + rewrite Hb, He. symmetry. apply Nat.eqb_refl.
  - constructor; cbn; auto; try lia.
    all: try (rewrite map_epochs; auto).
    all: try (rewrite i_put_iff0;
      destruct (Nat.eqb_spec (synchronizingEpochs s) (length (epochSeeds s))); [lia|];
      destruct (Nat.eqb_spec (synchronizedEpochs s) (length (epochSeeds s))); [lia|reflexivity]).
Qed.

Lemma gps_loop_ok bs lastE synced seeds :
  synced <= length seeds -> synced <= lastE + total_epoch_count bs ->
  exists r, gps_loop bs lastE synced seeds = Ok r.
Proof.
  revert lastE. induction bs as [|b r IH]; intros lastE H1 H2.
  - cbn [gps_loop]. unfold total_epoch_count in H2. cbn in H2.
    destruct (Nat.ltb_spec lastE synced); [lia|]. eexists; reflexivity.
  - cbn [gps_loop]. destruct (Nat.ltb_spec lastE synced); [|eexists; reflexivity].
    destruct (Nat.ltb_spec (length seeds) (Nat.min (lastE + b_epochs b) synced)); [lia|].
    destruct (IH (Nat.min (lastE + b_epochs b) synced) H1) as [r' Hr'].
    + unfold total_epoch_count in *. cbn in H2. lia.
    + rewrite Hr'. cbn [obind]. eexists; reflexivity.
Qed.

Lemma get_persistent_state_inv s : pbl_inv s ->
  exists s' st, get_persistent_state s = Ok (s', st) /\ pbl_inv s'
    /\ releasing s' = length (toRelease s) /\ heap s' = heap s
    /\ toRelease s' = toRelease s /\ releasedLog s' = releasedLog s
    /\ putWakeup s' = putWakeup s /\ releaseWakeup s' = releaseWakeup s.
Proof.
  intros I. destruct I. unfold get_persistent_state.
  destruct (gps_loop_ok (blocks s) 0 (synchronizedEpochs s) (epochSeeds s)) as [r Hr]; [lia|lia|].
  rewrite Hr. cbn. eexists _, _. split; [reflexivity|].
  splits; auto. constructor; cbn; auto.
Qed.

Lemma skipn_nil_length {A} n (l : list A) : skipn n l = [] -> length l <= n.
Proof.
  revert l. induction n; intros [|x l] H; cbn in *; try lia; try discriminate.
  apply IHn in H. lia.
Qed.

Lemma notify_state_written_inv s : pbl_inv s ->
  exists s', notify_state_written s = Ok s' /\ pbl_inv s'
    /\ releasedLog s' = releasedLog s ++ firstn (releasing s) (toRelease s)
    /\ toRelease s' = skipn (releasing s) (toRelease s)
    /\ ch_next (heap s) <= ch_next (heap s')
    /\ ch_closed (heap s') = ch_closed (heap s).
Proof.
  intros I. destruct I. unfold notify_state_written.
  destruct (Nat.ltb_spec (length (toRelease s)) (releasing s)); [lia|].
  destruct (skipn (releasing s) (toRelease s)) as [|x rest] eqn:E.
  - pose proof (wf_block_a _ _ _ (chan_wf_sym _ _ _ i_chan0)) as [W [Hb [Hn Hc]]].
    destruct (nc_block (releaseWakeup s) (heap s)) as [rw h1]. cbn in *.
    eexists. split; [reflexivity|]. cbn. splits; auto.
    constructor; cbn; auto; try lia. apply chan_wf_sym. exact W.
  - eexists. split; [reflexivity|]. cbn. splits; auto.
    constructor; cbn; auto; try lia.
    rewrite i_rel_iff0. destruct (toRelease s); [|reflexivity].
    destruct (releasing s); discriminate.
Qed.

Lemma hd_epochs_le b rest : b_epochs b <= total_epoch_count (b :: rest).
Proof. unfold total_epoch_count. cbn. lia. Qed.

Lemma pop_front_inv s : pbl_inv s -> blocks s <> [] ->
  exists s', pop_front s = Ok s' /\ pbl_inv s'
    /\ ch_next (heap s) <= ch_next (heap s')
    /\ (forall c, is_closed (heap s) c = true -> is_closed (heap s') c = true)
    /\ releasedLog s' = releasedLog s
    /\ (exists l, toRelease s' = toRelease s ++ [l]).
Proof.
  intros I Hne. destruct I. unfold pop_front.
  destruct (blocks s) as [|b rest] eqn:Eb; [congruence|].
  destruct (wf_unblock_a _ _ _ (chan_wf_sym _ _ _ i_chan0)) as [rw [h1 [Hu [W [Hb [Hid [Hn Hmono]]]]]]].
  rewrite Hu. cbn [obind].
  pose proof (hd_epochs_le b rest) as Hle. rewrite i_sum0 in Hle.
  destruct (Nat.ltb_spec (length (epochSeeds s)) (b_epochs b)); [lia|].
  destruct (Nat.ltb_spec (length (epochLast s)) (b_epochs b)); [lia|]. cbn [orb].
  set (ec := b_epochs b) in *.
  set (syncing' := if synchronizingEpochs s <=? ec then 0 else synchronizingEpochs s - ec).
  set (synced' := if synchronizedEpochs s <=? ec then 0 else synchronizedEpochs s - ec).
  assert (Hs1 : syncing' = synchronizingEpochs s - ec).
  { unfold syncing'. destruct (Nat.leb_spec (synchronizingEpochs s) ec); lia. }
  assert (Hs2 : synced' = synchronizedEpochs s - ec).
  { unfold synced'. destruct (Nat.leb_spec (synchronizedEpochs s) ec); lia. }
  assert (Hlen : length (skipn ec (epochSeeds s)) = length (epochSeeds s) - ec) by apply skipn_length.
  assert (Hsum : total_epoch_count rest = length (epochSeeds s) - ec).
  { unfold total_epoch_count in *. cbn in i_sum0. fold ec in i_sum0. lia. }
  apply chan_wf_sym in W.
  (* the fields of the invariant that do not depend on whether the put channel must block again *)
  assert (L1 : length (skipn ec (epochLast s)) = length (skipn ec (epochSeeds s))) by (rewrite !skipn_length; lia).
  assert (L2 : total_epoch_count rest = length (skipn ec (epochSeeds s))) by lia.
  assert (L3 : synced' <= syncing') by lia.
  assert (L4 : syncing' <= length (skipn ec (epochSeeds s))) by lia.
  assert (L5 : releasing s <= length (toRelease s ++ [b_loc b])) by (rewrite app_length; cbn; lia).
  assert (L6 : nc_blocking rw = match toRelease s ++ [b_loc b] with [] => true | _ => false end)
    by (rewrite Hb; destruct (toRelease s); reflexivity).
  destruct (Nat.eqb_spec synced' (length (skipn ec (epochSeeds s)))) as [He|Hn'].
  - pose proof (wf_block_a _ _ _ W) as [W2 [Hb2 [Hn2 Hc2]]].
    destruct (nc_block (putWakeup s) h1) as [pw h2]. cbn in *.
    eexists. split; [reflexivity|]. cbn. splits; auto.
    + constructor; cbn; auto. rewrite Hb2. symmetry. apply Nat.eqb_eq. exact He.
    + clear - Hn Hn2. lia.
    + intros c Hc. apply Hmono in Hc. unfold is_closed in *. rewrite Hc2. exact Hc.
    + eauto.
  - eexists. split; [reflexivity|]. cbn. splits; auto.
    + constructor; cbn; auto. rewrite i_put_iff0.
      destruct (Nat.eqb_spec synced' (length (skipn ec (epochSeeds s)))); [lia|].
      destruct (Nat.eqb_spec (synchronizedEpochs s) (length (epochSeeds s))); [lia|reflexivity].
    + rewrite Hn. apply le_n.
    + eauto.
Qed.

(** A Put token is valid when its absolute index is below the end of the list. *)
Definition tok_ok (s : pbl) (tok : put_token) : Prop :=
  match tok with PutClosed => True | PutAt abs => abs < totalReleased s + length (blocks s) end.

Lemma put_start_ok index s : closedForWriting s = true \/ index < length (blocks s) ->
  exists tok, put_start index s = Ok tok /\ tok_ok s tok.
Proof.
  intros H. unfold put_start. destruct (closedForWriting s) eqn:E.
  - eexists. split; [reflexivity|exact I].
  - destruct H as [H|H]; [discriminate|].
    destruct (Nat.ltb_spec index (length (blocks s))); [|lia].
    eexists. split; [reflexivity|]. cbn. lia.
Qed.

Inductive fin_move (tok : put_token) (blk : option Z) (size : Z) (seed : N) (s : pbl) : pbl -> fin_result -> Prop :=
| FinRefused fr :
    fr = FinClosed \/ (fr = FinBlockError /\ blk = None) \/ (fr = FinReleased /\ closedForWriting s = false) ->
    fin_move tok blk size seed s s fr
| FinSameEpoch abs off n' la :
    tok = PutAt abs -> blk = Some off -> closedForWriting s = false ->
    totalReleased s <= abs -> abs - totalReleased s < length (blocks s) ->
    length (epochLast s) = S n' -> nth_error (epochLast s) n' = Some la -> abs <= la ->
    fin_move tok blk size seed s
      (set_blocks s (set_written (blocks s) (abs - totalReleased s) (off + size))) (FinOk off)
| FinNewEpoch abs off pw h1 :
    tok = PutAt abs -> blk = Some off -> closedForWriting s = false ->
    totalReleased s <= abs -> abs - totalReleased s < length (blocks s) ->
    nc_unblock (putWakeup s) (heap s) = Ok (pw, h1) ->
    fin_move tok blk size seed s
      (mkPbl (closedForWriting s)
             (bump_last_epoch_count (set_written (blocks s) (abs - totalReleased s) (off + size)))
             (epochSeeds s ++ [seed])
             (epochLast s ++ [totalReleased s + length (set_written (blocks s) (abs - totalReleased s) (off + size)) - 1])
             (totalReleased s) (oldestEpochID s) (synchronizingEpochs s) (synchronizedEpochs s) pw
             (toRelease s) (releasing s) (releaseWakeup s) h1 (releasedLog s))
      (FinOk off).

Lemma put_finalize_cases {tok blk size seed s s' fr} :
  put_finalize tok blk size seed s = Ok (s', fr) -> fin_move tok blk size seed s s' fr.
Proof.
  unfold put_finalize.
  destruct tok as [|abs]; [intros [= <- <-]; constructor; auto|].
  destruct blk as [off|]; [|intros [= <- <-]; constructor; auto].
  destruct (closedForWriting s) eqn:Ec; [intros [= <- <-]; constructor; auto|].
  destruct (Nat.ltb_spec abs (totalReleased s)); [intros [= <- <-]; constructor; auto|].
  destruct (Nat.leb_spec (length (blocks s)) (abs - totalReleased s)); [discriminate|].
  destruct (length (epochLast s) =? synchronizingEpochs s); cbn [obind].
  - destruct (nc_unblock _ _) as [[pw h1]|] eqn:Hu; [|discriminate]. intros [= <- <-].
    rewrite <- Ec. eapply FinNewEpoch; eauto.
  - destruct (length (epochLast s)) as [|n'] eqn:El; [discriminate|].
    destruct (nth_error (epochLast s) n') as [la|] eqn:En; [|discriminate]. cbn [obind].
    destruct (Nat.ltb_spec la abs).
    + destruct (nc_unblock _ _) as [[pw h1]|] eqn:Hu; [|discriminate]. intros [= <- <-].
      rewrite <- Ec. eapply FinNewEpoch; eauto.
    + intros [= <- <-]. eapply FinSameEpoch; eauto.
Qed.

Lemma put_finalize_inv tok blk size seed s : pbl_inv s -> tok_ok s tok ->
  exists s' fr, put_finalize tok blk size seed s = Ok (s', fr) /\ pbl_inv s'
    /\ ch_next (heap s') = ch_next (heap s)
    /\ (forall c, is_closed (heap s) c = true -> is_closed (heap s') c = true)
    /\ releasedLog s' = releasedLog s /\ toRelease s' = toRelease s
    /\ totalReleased s' = totalReleased s /\ length (blocks s') = length (blocks s).
Proof.
  intros I T. pose proof I as I0. destruct I.
  destruct (wf_unblock_a _ _ _ i_chan0) as [pw [h1 [Hu [W [Hb [Hid [Hn Hmono]]]]]]].
  (* the finalizer does not panic *)
  assert (Hok : exists r, put_finalize tok blk size seed s = Ok r).
  { unfold put_finalize. destruct tok as [|abs]; [eauto|]. destruct blk as [off|]; [|eauto].
    destruct (closedForWriting s); [eauto|]. destruct (Nat.ltb_spec abs (totalReleased s)); [eauto|]. cbn in T.
    destruct (Nat.leb_spec (length (blocks s)) (abs - totalReleased s)); [lia|]. rewrite Hu.
    destruct (Nat.eqb_spec (length (epochLast s)) (synchronizingEpochs s)); [cbn [obind]; eauto|].
    destruct (length (epochLast s)) as [|n'] eqn:El; [lia|].
    destruct (nth_error (epochLast s) n') as [la|] eqn:En; [|apply nth_error_None in En; lia].
    cbn [obind]. destruct (la <? abs); cbn [obind]; eauto. }
  destruct Hok as [[s' fr] H]. exists s', fr. split; [exact H|].
  destruct (put_finalize_cases H) as [fr _|abs off n' la _ _ _ _ _ _ _ _|abs off pw' h1' _ _ _ _ Hlt Hu'].
  - splits; auto.
  - cbn. splits; auto; [|apply set_written_length]. constructor; cbn; auto.
    unfold total_epoch_count in *. rewrite set_written_epochs. assumption.
  - rewrite Hu in Hu'. injection Hu' as <- <-. cbn.
    set (bl1 := set_written _ _ _). assert (Hl1 : length bl1 = length (blocks s)) by apply set_written_length.
    splits; auto.
    + constructor; cbn; auto; try lia.
      * rewrite !app_length. cbn. lia.
      * rewrite bump_epochs, app_length; [unfold bl1; rewrite set_written_epochs; cbn; lia|].
        intros E. rewrite E in Hl1. cbn in Hl1. lia.
      * rewrite app_length. cbn. lia.
      * rewrite Hb, app_length. cbn.
        destruct (Nat.eqb_spec (synchronizedEpochs s) (length (epochSeeds s) + 1)); [lia|reflexivity].
    + clear - Hl1.
      assert (forall l, length (bump_last_epoch_count l) = length l) as Hbl.
      { induction l as [|b [|b' r] IH]; cbn in *; auto. }
      rewrite Hbl. exact Hl1.
Qed.

(** how the channels evolve: closed stays closed, identities only grow,
    a wake-up channel is replaced only after it was closed *)
Definition chan_mono (s s' : pbl) : Prop :=
  ch_next (heap s) <= ch_next (heap s') /\
  (forall c, is_closed (heap s) c = true -> is_closed (heap s') c = true) /\
  (get_put_wakeup s' = get_put_wakeup s \/ is_closed (heap s') (get_put_wakeup s) = true) /\
  (get_release_wakeup s' = get_release_wakeup s \/ is_closed (heap s') (get_release_wakeup s) = true).

Lemma chan_mono_same s s' :
  heap s' = heap s -> putWakeup s' = putWakeup s -> releaseWakeup s' = releaseWakeup s -> chan_mono s s'.
Proof.
  intros H1 H2 H3. unfold chan_mono, get_put_wakeup, get_release_wakeup.
  rewrite H1, H2, H3. splits; auto.
Qed.

Lemma nc_block_cases a h b : chan_wf h a b ->
  ch_next h <= ch_next (snd (nc_block a h)) /\
  (forall c, is_closed h c = true -> is_closed (snd (nc_block a h)) c = true) /\
  (nc_chan (fst (nc_block a h)) = nc_chan a \/ is_closed (snd (nc_block a h)) (nc_chan a) = true).
Proof.
  intros W. unfold nc_block. destruct (nc_blocking a) eqn:E; cbn.
  - splits; auto.
  - splits; auto. right. unfold is_closed. cbn. fold (is_closed h (nc_chan a)).
    pose proof (cw_a_blk _ _ _ W) as Hb. rewrite E in Hb.
    destruct (is_closed h (nc_chan a)); [reflexivity|discriminate].
Qed.

Lemma notify_sync_completed_mono s : pbl_inv s -> chan_mono s (notify_sync_completed s).
Proof.
  intros I. unfold notify_sync_completed.
  destruct (synchronizingEpochs s =? length (epochSeeds s)).
  - pose proof (nc_block_cases _ _ _ (i_chan s I)) as [H1 [H2 H3]].
    destruct (nc_block (putWakeup s) (heap s)) as [pw h1]. cbn in *.
    unfold chan_mono, get_put_wakeup, get_release_wakeup. cbn. splits; auto.
  - apply chan_mono_same; reflexivity.
Qed.

Lemma notify_state_written_mono s s' : pbl_inv s -> notify_state_written s = Ok s' -> chan_mono s s'.
Proof.
  intros I. unfold notify_state_written.
  destruct (length (toRelease s) <? releasing s); [discriminate|].
  destruct (skipn (releasing s) (toRelease s)).
  - pose proof (nc_block_cases _ _ _ (chan_wf_sym _ _ _ (i_chan s I))) as [H1 [H2 H3]].
    destruct (nc_block (releaseWakeup s) (heap s)) as [rw h1]. cbn in *.
    intros H; inversion H; subst; clear H.
    unfold chan_mono, get_put_wakeup, get_release_wakeup. cbn. splits; auto.
  - intros H; inversion H; subst; clear H. apply chan_mono_same; reflexivity.
Qed.

Lemma pop_front_mono s s' : pbl_inv s -> pop_front s = Ok s' ->
  chan_mono s s' /\ totalReleased s' + length (blocks s') = totalReleased s + length (blocks s)
  /\ closedForWriting s' = closedForWriting s.
Proof.
  intros I. unfold pop_front. destruct (blocks s) as [|b rest]; [discriminate|].
  destruct (wf_unblock_a _ _ _ (chan_wf_sym _ _ _ (i_chan s I))) as [rw [h1 [Hu [W [Hb [Hid [Hn Hmono]]]]]]].
  rewrite Hu. cbn [obind].
  destruct ((length (epochSeeds s) <? b_epochs b) || (length (epochLast s) <? b_epochs b)); [discriminate|].
  match goal with |- context [if ?c then nc_block _ _ else _] => destruct c end.
  - pose proof (nc_block_cases _ _ _ (chan_wf_sym _ _ _ W)) as [H1 [H2 H3]].
    destruct (nc_block (putWakeup s) h1) as [pw h2]. cbn in *.
    intros H; inversion H; subst; clear H. cbn. splits; auto; try lia.
    unfold chan_mono, get_put_wakeup, get_release_wakeup. cbn. splits; auto; try lia.
  - intros H; inversion H; subst; clear H. cbn. splits; auto; try lia.
    unfold chan_mono, get_put_wakeup, get_release_wakeup. cbn. splits; auto; try lia.
Qed.

Lemma put_finalize_mono tok blk size seed s s' fr : pbl_inv s ->
  put_finalize tok blk size seed s = Ok (s', fr) ->
  chan_mono s s' /\ closedForWriting s' = closedForWriting s.
Proof.
  intros I H.
  destruct (put_finalize_cases H) as [fr' _|abs off n' la _ _ _ _ _ _ _ _|abs off pw h1 _ _ _ _ _ Hu];
    (split; [|reflexivity]); try (apply chan_mono_same; reflexivity).
  destruct (wf_unblock_a _ _ _ (i_chan s I)) as [pw' [h1' [Hu' [W [Hb [Hid [Hn Hmono]]]]]]].
  rewrite Hu in Hu'. injection Hu' as <- <-.
  unfold chan_mono, get_put_wakeup, get_release_wakeup. cbn. splits; auto; lia.
Qed.
