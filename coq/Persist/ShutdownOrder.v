(** The completed state writes are ordered: a newer one covers at least the
    acks an older one covers (snapshots are taken and completed under
    storeLock; the cohort of completed syncs only grows).  Hence the state on
    the medium after a process crash — the newest completed write — covers
    every ack as soon as some completed commit does. *)
From Coq Require Import List NArith ZArith Bool Arith Lia.
From BBS Require Import Persist.PBL Persist.PBLProofs Persist.Syncer Persist.SyncerProofs Persist.Shutdown
  Persist.ShutdownProofs.
Import ListNotations.

Definition suffix {A} (l1 l2 : list A) : Prop := exists pre, l2 = pre ++ l1.

Lemma suffix_refl {A} (l : list A) : suffix l l.
Proof. exists []. reflexivity. Qed.
Lemma suffix_trans {A} (a b c : list A) : suffix a b -> suffix b c -> suffix a c.
Proof. intros [p ->] [q ->]. exists (q ++ p). rewrite app_assoc. reflexivity. Qed.
Lemma suffix_cons {A} (x : A) a b : suffix a b -> suffix a (x :: b).
Proof. intros [p ->]. exists (x :: p). reflexivity. Qed.
Lemma suffix_full {A} (a b : list A) : suffix a b -> length b <= length a -> a = b.
Proof.
  intros [p ->] H. rewrite app_length in H. destruct p; [reflexivity|]. cbn in H. lia.
Qed.
Lemma suffix_length {A} (a b : list A) : suffix a b -> length a <= length b.
Proof. intros [p ->]. rewrite app_length. lia. Qed.

Fixpoint chain (top : list ack) (ws : list gwrite) : Prop :=
  match ws with
  | [] => True
  | w :: r => suffix (gw_cohort w) top /\ chain (gw_cohort w) r
  end.

Lemma chain_mono top top' ws : suffix top top' -> chain top ws -> chain top' ws.
Proof. destruct ws as [|w r]; [auto|]. intros S [H1 H2]. split; [eapply suffix_trans; eauto|exact H2]. Qed.

Lemma chain_in top ws w : chain top ws -> In w ws -> suffix (gw_cohort w) top.
Proof.
  revert top. induction ws as [|w0 r IH]; intros top C Hin; [destruct Hin|].
  destruct C as [C1 C2]. destruct Hin as [->|Hin]; [exact C1|].
  eapply suffix_trans; [apply IH; eauto|exact C1].
Qed.

Definition pend_ok (s : sys) (x : gsys) (t : tid) : Prop :=
  match get_pend x t with
  | Some w => (exists st, wpc_of t s = Some (WWriting st))
              /\ suffix (gw_cohort w) (g_synced (gs_g x)) /\ chain (gw_cohort w) (gs_writes x)
  | None => True
  end.

Definition ch (s : sys) (x : gsys) : Prop :=
  suffix (g_synced (gs_g x)) (g_syncing (gs_g x)) /\ suffix (g_syncing (gs_g x)) (g_acks (gs_g x))
  /\ chain (g_synced (gs_g x)) (gs_writes x) /\ pend_ok s x TR /\ pend_ok s x TP.

Lemma ch_frame s x s' x' :
  wpc_of TR s' = wpc_of TR s -> wpc_of TP s' = wpc_of TP s ->
  g_syncing (gs_g x') = g_syncing (gs_g x) -> g_synced (gs_g x') = g_synced (gs_g x) ->
  suffix (g_acks (gs_g x)) (g_acks (gs_g x')) -> same_writes x x' -> ch s x -> ch s' x'.
Proof.
  intros Hr Hp Hy Hd Ha [W1 [W2 W3]] [C1 [C2 [C3 [C4 C5]]]].
  unfold ch, pend_ok in *. cbn [get_pend] in *. rewrite Hy, Hd, W1, W2, W3, Hr, Hp. splits; auto.
  eapply suffix_trans; eauto.
Qed.

Lemma wpc_of_r_frame s s' : s_r s' = s_r s -> wpc_of TR s' = wpc_of TR s.
Proof. intros H. unfold wpc_of. rewrite H. reflexivity. Qed.
Lemma wpc_of_p_frame s s' : s_p s' = s_p s -> wpc_of TP s' = wpc_of TP s.
Proof. intros H. unfold wpc_of. rewrite H. reflexivity. Qed.

Lemma pend_none s x t : pend_ok s x t -> (forall st, wpc_of t s <> Some (WWriting st)) -> get_pend x t = None.
Proof.
  unfold pend_ok. destruct (get_pend x t); [|reflexivity]. intros [[st H] _] Hn. exfalso. eapply Hn; eauto.
Qed.

Lemma pend_ok_none s x t : get_pend x t = None -> pend_ok s x t.
Proof. unfold pend_ok. intros ->. exact I. Qed.

Lemma both_writing s st st' : inv3 s -> wpc_of TR s = Some (WWriting st) -> wpc_of TP s = Some (WWriting st') -> False.
Proof.
  unfold inv3, r_holds, p_holds, wpc_of.
  destruct (s_r s) as [| |w1]; destruct (s_p s) as [| | | | | | | |k w2|]; intros [_ H] H1 H2; try discriminate.
  inversion H1; inversion H2; subst. cbn in H. discriminate H.
Qed.

Local Hint Resolve suffix_refl same_writes_refl same_writes_with_g : ch.

Lemma ch_quiet t s x s' x' :
  ch s x -> (forall st, wpc_of t s <> Some (WWriting st)) -> (forall o, o <> t -> wpc_of o s' = wpc_of o s) ->
  same_writes x x' ->
  suffix (g_synced (gs_g x)) (g_synced (gs_g x')) -> suffix (g_synced (gs_g x')) (g_syncing (gs_g x')) ->
  suffix (g_syncing (gs_g x')) (g_acks (gs_g x')) -> ch s' x'.
Proof.
  intros [C1 [C2 [C3 [C4 C5]]]] Ht Ho [W1 [W2 W3]] S1 S2 S3.
  (* loop [t] is not writing: it has no pending snapshot; the other loop's is below the grown [g_synced] *)
  assert (Hn : get_pend x t = None) by (apply (pend_none s); [destruct t; assumption|exact Ht]).
  unfold ch, pend_ok in *. cbn [get_pend] in *. rewrite W1, W2, W3. splits; auto.
  - eapply chain_mono; eauto.
  - destruct t; cbn [get_pend] in Hn; [rewrite Hn; exact I|]. rewrite (Ho TR) by discriminate.
    destruct (gs_pend_r x); [|exact I]. destruct C4 as [A [B D]]. splits; auto. eapply suffix_trans; eauto.
  - destruct t; cbn [get_pend] in Hn; [|rewrite Hn; exact I]. rewrite (Ho TP) by discriminate.
    destruct (gs_pend_p x); [|exact I]. destruct C5 as [A [B D]]. splits; auto. eapply suffix_trans; eauto.
Qed.

Lemma gw_step_ch cfg t w a s s1 w' (s' : sys) x :
  inv3 s -> ch s x -> wpc_of t s = Some w ->
  wstep cfg t w a s = Some (Ok (s1, w')) ->
  wpc_of t s' = w' ->
  (forall o, o <> t -> wpc_of o s' = wpc_of o s) ->
  ch s' (gw_step t w a s s' x).
Proof.
  intros I3 [C1 [C2 [C3 [C4 C5]]]] Hw Hs Hw' Hoth.
  assert (Pt : pend_ok s x t) by (destruct t; assumption).
  assert (Hother : forall o, o <> t -> (forall st, w = WWriting st -> get_pend x o = None)).
  { intros o Ho st ->. apply (pend_none s); [destruct o; assumption|]. intros st' Hc.
    destruct t, o; try congruence; eapply both_writing; eauto. }
  destruct (wstep_cases Hs) as [E|p' st E|st E|st E|p' E|dl E]; cbn [gw_step].
  1, 5, 6: (apply (ch_quiet t s x); unfold ch; auto with ch; intros st' Hc; congruence).
  (* while [t] is writing, the other loop is not (I3) and so has no pending snapshot *)
  2, 3: assert (HoR : t = TP -> get_pend x TR = None) by (intros ->; apply (Hother TR ltac:(discriminate) st eq_refl)).
  2, 3: assert (HoP : t = TR -> get_pend x TP = None) by (intros ->; apply (Hother TP ltac:(discriminate) st eq_refl)).
  - (* WGetState *)
    destruct t; unfold ch; cbn [set_pend gs_g gs_writes]; splits; auto; unfold pend_ok in *;
      cbn [get_pend set_pend gs_pend_r gs_pend_p gs_g gs_writes gw_cohort] in *.
    + splits; [eexists; exact Hw'|apply suffix_refl|exact C3].
    + rewrite (Hoth TP); [exact C5|discriminate].
    + rewrite (Hoth TR); [exact C4|discriminate].
    + splits; [eexists; exact Hw'|apply suffix_refl|exact C3].
  - (* the write returned nil *)
    rewrite E. destruct (get_pend x t) as [w0|] eqn:Ep.
    + unfold pend_ok in Pt. rewrite Ep in Pt. destruct Pt as [_ [P2 P3]].
      unfold ch. destruct t; cbn in *; splits; auto; unfold pend_ok; cbn; auto.
      * rewrite (HoP eq_refl). exact I.
      * rewrite (HoR eq_refl). exact I.
    + unfold ch. splits; auto.
      * apply pend_ok_none. destruct t; [exact Ep|exact (HoR eq_refl)].
      * apply pend_ok_none. destruct t; [exact (HoP eq_refl)|exact Ep].
  - (* the write failed *)
    rewrite E. unfold ch. destruct t; cbn in *; splits; auto; unfold pend_ok; cbn; auto.
    + rewrite (HoP eq_refl). exact I.
    + rewrite (HoR eq_refl). exact I.
Qed.

Lemma step_ch cfg s e s' x : inv1 s -> inv3 s -> ch s x -> step cfg s e = Some (Ok s') -> ch s' (gstep s e s' x).
Proof.
  intros I1 I3 C Hs.
  destruct (is_env e) eqn:He.
  { destruct (env_cases Hs He) as [alloc|b rest p' Eb Ep|index size tok _ _|k blk seed tok sz p' fr En Ef|d|];
      cbn [gstep]; try solve [apply (ch_frame s x); auto with ch].
    - rewrite Eb. apply (ch_frame s x); auto with ch.
    - rewrite En. destruct tok as [|abs]; [apply (ch_frame s x); auto with ch|].
      rewrite Ef. destruct fr as [off| | |]; [|apply (ch_frame s x); auto with ch..].
      destruct (mk_ack _ _ _ _) as [a|]; apply (ch_frame s x); auto with ch. cbn. apply suffix_cons, suffix_refl. }
  destruct e as [| | | | | |t a]; try discriminate He. cbn [step] in Hs.
  pose proof C as [C1 [C2 _]]. cbn [gstep]. destruct t.
  - (* release loop *)
    assert (Ho : forall o, o <> TR -> wpc_of o s' = wpc_of o s).
    { intros [] Ho; [congruence|]. apply wpc_of_p_frame. eapply rstep_frame; eauto. }
    destruct (rstep_cases Hs) as [Er|ch0 Er _|w s1 w' Er Ew]; rewrite Er.
    1, 2: (apply (ch_quiet TR s x); auto with ch; unfold wpc_of; rewrite Er; discriminate).
    eapply gw_step_ch; eauto.
    + unfold wpc_of. rewrite Er. reflexivity.
    + destruct w'; reflexivity.
  - (* put loop *)
    assert (Ho : forall o, o <> TP -> wpc_of o s' = wpc_of o s).
    { intros [] Ho; [|congruence]. apply wpc_of_r_frame. eapply pstep_frame; eauto. }
    destruct (pstep_cases Hs) as [pc pc' Ep J|dl Ep _ _ _|keep Ep|Ep|keep final Ep E|keep w s1 w' Ep Ew];
      rewrite Ep.
    6:{ eapply (gw_step_ch cfg TP); eauto.
        - unfold wpc_of. rewrite Ep. reflexivity.
        - (* when the function has returned the loop is no longer inside it *)
          destruct w'; [|destruct keep]; reflexivity. }
    all: assert (Hp : forall st, wpc_of TP s <> Some (WWriting st))
      by (unfold wpc_of; rewrite Ep; try destruct J; discriminate).
    + destruct J; apply (ch_quiet TP s x); auto with ch.
    + apply (ch_quiet TP s x); auto with ch.
    + apply (ch_quiet TP s x); cbn; auto with ch. eapply suffix_trans; eauto.
    + apply (ch_quiet TP s x); cbn; auto with ch.
    + rewrite E. apply (ch_quiet TP s x); cbn; auto with ch.
Qed.

Definition sinv3 (o : N) (s : sys) (x : gsys) : Prop := sinv2 o s x /\ ch s x.

Lemma grun_sinv3 o cfg tr : forall s x s' x', sinv3 o s x -> grun cfg s x tr = Some (Ok (s', x')) -> sinv3 o s' x'.
Proof.
  apply (grun_inv cfg (sinv3 o)). intros s e s' x [S2 C] Hs. split; [eapply step_sinv2; eauto|].
  destruct S2 as [[I1 _] [I3 _]]. eapply step_ch; eauto.
Qed.

Lemma init_sinv3 alloc oldest init t0 : sinv3 oldest (init_sys (fst (pbl_new alloc oldest init)) t0) g0.
Proof.
  split; [apply init_sinv2|]. unfold ch, pend_ok, g0. cbn. splits; auto; apply suffix_refl.
Qed.

Lemma greachable_sinv3 cfg alloc oldest init t0 s x : greachable cfg alloc oldest init t0 s x -> sinv3 oldest s x.
Proof. intros [tr H]. exact (grun_sinv3 _ _ tr _ _ _ _ (init_sinv3 alloc oldest init t0) H). Qed.

(** newer completed writes cover at least what older ones cover *)
Theorem writes_monotone_all cfg alloc oldest init t0 s x : greachable cfg alloc oldest init t0 s x ->
  forall w0 rest w, gs_writes x = w0 :: rest -> In w rest -> suffix (gw_cohort w) (gw_cohort w0).
Proof.
  intros R w0 rest w Hw Hin. destruct (greachable_sinv3 _ _ _ _ _ _ _ R) as [_ [_ [_ [C _]]]].
  rewrite Hw in C. destruct C as [_ C]. eapply chain_in; eauto.
Qed.

(** process crash after a completed commit: if some completed state write has
    every ack in its cohort (no finalizer returned OK since the start of its
    commit), then so does the newest completed write — the state on the
    medium — and it covers every ack *)
Theorem crash_commit_covers_all cfg alloc oldest init t0 s x : greachable cfg alloc oldest init t0 s x ->
  forall w, In w (gs_writes x) -> gw_cohort w = g_acks (gs_g x) ->
  exists w0 rest, gs_writes x = w0 :: rest /\ gw_cohort w0 = g_acks (gs_g x) /\
                  forall a, In a (g_acks (gs_g x)) -> covers w0 a.
Proof.
  intros R w Hin Hall. destruct (greachable_sinv3 _ _ _ _ _ _ _ R) as [_ [C1 [C2 [C3 _]]]].
  destruct (gs_writes x) as [|w0 rest] eqn:Ew; [destruct Hin|]. exists w0, rest. split; [reflexivity|].
  assert (Htop : suffix (gw_cohort w0) (g_acks (gs_g x))).
  { destruct C3 as [C3 _]. eapply suffix_trans; [exact C3|]. eapply suffix_trans; eauto. }
  assert (Hfull : gw_cohort w0 = g_acks (gs_g x)).
  { apply suffix_full; [exact Htop|]. destruct Hin as [->|Hin]; [rewrite Hall; lia|].
    destruct C3 as [_ C3]. pose proof (chain_in _ _ _ C3 Hin) as Hs. apply suffix_length in Hs.
    rewrite Hall in Hs. exact Hs. }
  split; [exact Hfull|]. intros a Ha. eapply commit_covers_all; eauto.
  - rewrite Ew. left. reflexivity.
  - rewrite Hfull. exact Ha.
Qed.
