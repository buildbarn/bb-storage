(** Persist/Crash.v — the three storage media of the persistent local store as
    ONE global I/O log, the post-crash media as a function of a log prefix and a
    loss choice ([crash_medium]), and the restart ([restart] = [pbl_new] on the
    surviving state file, [resolve_ref] = BlockReferenceToBlockIndex + the seed
    check of the record checksum).  Definitions only.

    Fault model (the property's):
      - data device: a write is durable once a Sync that was CALLED after the
        write was issued has RETURNED nil; all other writes ("pending") survive
        a crash in any combination; the log has one [IoData] entry per sector
        written, so a multi-sector write tears at sector boundaries;
      - index device: never synced; every record write of the prefix survives
        or not, in any combination; a record write is atomic (observation O1
        of DESIGN.md is outside the fault model);
      - state directory: name-space operations (create / rename / remove of
        state.new) become durable at the directory fsync and are otherwise
        lost from some point on (any PREFIX of the operations since the last
        directory fsync took effect — ordered metadata journalling); the
        content of a file is durable once the file was fsynced, otherwise it
        is whatever the loss choice says: the bytes written, nothing (empty
        file), or the bytes of an older state file (stale blocks).

    The record payload type [R] is a parameter: the judge instantiates it with
    the 66 raw bytes read back through Index/RecordCodec, the theorems with the
    abstract record [irec] of Persist/CrashLts.v. *)
From Coq Require Import List NArith ZArith Bool Arith Lia.
From BBS Require Import Persist.PBL.
Import ListNotations.

(** what the state file holds: ((oldest_epoch_id, blocks), key_location_map_hash_initialization) *)
Definition sfile : Type := (pstate * N)%type.
(** proto.Unmarshal of an empty file: the zero PersistentState *)
Definition sfile_empty : sfile := ((0%N, []), 0%N).

Section Medium.
  Variable R : Type.

  Inductive io :=
  | IoData (u : nat) (l : loc) (lo hi : Z)   (* bytes [lo,hi) (block relative) of the block at device location l; content: upload u's *)
  | IoSyncBegin                              (* DataSyncer called *)
  | IoSyncEnd (ok : bool)                    (* DataSyncer returned (nil iff ok) *)
  | IoIndex (slot : nat) (r : R)             (* one record write *)
  | IoRemoveNew                              (* directory.Remove("state.new") succeeded *)
  | IoCreateNew                              (* OpenAppend("state.new", CreateExcl) succeeded *)
  | IoWriteNew (st : sfile)                  (* f.Write(marshalled state) *)
  | IoFsyncNew                               (* f.Sync() returned nil *)
  | IoRenameNew                              (* Rename("state.new", "state") *)
  | IoDirSync.                               (* directory.Sync() returned nil *)

  (** ---- data device ---- *)
  Definition dwrite : Type := (nat * loc * Z * Z)%type.

  (** scan state: (position, begin of the sync in flight, durable frontier) *)
  Definition dur_step (st : nat * option nat * nat) (e : io) : nat * option nat * nat :=
    let '(pos, beg, dur) := st in
    match e with
    | IoSyncBegin => (S pos, Some pos, dur)
    | IoSyncEnd true => (S pos, None, match beg with Some b => b | None => dur end)
    | IoSyncEnd false => (S pos, None, dur)
    | _ => (S pos, beg, dur)
    end.
  Definition dur_scan (l : list io) : nat * option nat * nat := fold_left dur_step l (0, None, 0).
  (** every data write at a log position below [durable_upto l] is durable *)
  Definition durable_upto (l : list io) : nat := snd (dur_scan l).
  Definition pending_begin (l : list io) : option nat := snd (fst (dur_scan l)).

  Fixpoint data_from (pos : nat) (l : list io) : list (nat * dwrite) :=
    match l with
    | [] => []
    | IoData u lc lo hi :: t => (pos, (u, lc, lo, hi)) :: data_from (S pos) t
    | _ :: t => data_from (S pos) t
    end.
  Definition data_durable (l : list io) : list dwrite :=
    map snd (filter (fun e => fst e <? durable_upto l) (data_from 0 l)).
  Definition data_pending (l : list io) : list dwrite :=
    map snd (filter (fun e => negb (fst e <? durable_upto l)) (data_from 0 l)).

  (** [select bs xs]: the elements of xs whose flag is true (missing flags = lost) *)
  Fixpoint select {T} (bs : list bool) (xs : list T) : list T :=
    match xs, bs with
    | x :: xs', true :: bs' => x :: select bs' xs'
    | _ :: xs', false :: bs' => select bs' xs'
    | _, _ => []
    end.

  (** ---- index device ---- *)
  Fixpoint index_writes (l : list io) : list (nat * R) :=
    match l with
    | [] => []
    | IoIndex s r :: t => (s, r) :: index_writes t
    | _ :: t => index_writes t
    end.

  (** the record a slot holds: the LAST surviving write to it *)
  Fixpoint slot_get (ws : list (nat * R)) (s : nat) (acc : option R) : option R :=
    match ws with
    | [] => acc
    | (s', r) :: t => slot_get t s (if Nat.eqb s' s then Some r else acc)
    end.

  (** ---- state directory ---- *)
  Inductive nsop := NsRemove | NsCreate (f : nat) | NsRename.

  Record dirst := mkDir {
    d_files : list (option sfile * bool);   (* per file id: bytes written (None: nothing), fsynced *)
    d_vnew : option nat;  d_vstate : option nat;   (* volatile name space *)
    d_dnew : option nat;  d_dstate : option nat;   (* durable name space (last directory fsync) *)
    d_pend : list nsop                              (* name-space operations since *)
  }.

  Definition ns_apply (ns : option nat * option nat) (o : nsop) : option nat * option nat :=
    match o with
    | NsRemove => (None, snd ns)
    | NsCreate f => (Some f, snd ns)
    | NsRename => match fst ns with Some f => (None, Some f) | None => ns end
    end.

  Fixpoint set_nth {T} (l : list T) (i : nat) (x : T) : list T :=
    match l, i with
    | [], _ => []
    | _ :: t, O => x :: t
    | h :: t, S j => h :: set_nth t j x
    end.

  (** the directory a life starts from: the files that survived the previous crash (durable) *)
  Definition dir_init (st new : option sfile) : dirst :=
    let fs := match st with Some c => [(Some c, true)] | None => [] end in
    let fn := match new with Some c => [(Some c, true)] | None => [] end in
    let si := match st with Some _ => Some 0 | None => None end in
    let ni := match new with Some _ => Some (length fs) | None => None end in
    mkDir (fs ++ fn) ni si ni si [].

  Definition dir_step (d : dirst) (e : io) : dirst :=
    match e with
    | IoRemoveNew => mkDir (d_files d) None (d_vstate d) (d_dnew d) (d_dstate d) (d_pend d ++ [NsRemove])
    | IoCreateNew =>
        let f := length (d_files d) in
        mkDir (d_files d ++ [(None, false)]) (Some f) (d_vstate d) (d_dnew d) (d_dstate d) (d_pend d ++ [NsCreate f])
    | IoWriteNew st =>
        match d_vnew d with
        | Some f => mkDir (set_nth (d_files d) f (Some st, false)) (d_vnew d) (d_vstate d) (d_dnew d) (d_dstate d) (d_pend d)
        | None => d
        end
    | IoFsyncNew =>
        match d_vnew d with
        | Some f => mkDir (set_nth (d_files d) f (fst (nth f (d_files d) (None, false)), true))
                          (d_vnew d) (d_vstate d) (d_dnew d) (d_dstate d) (d_pend d)
        | None => d
        end
    | IoRenameNew =>
        match d_vnew d with
        | Some f => mkDir (d_files d) None (Some f) (d_dnew d) (d_dstate d) (d_pend d ++ [NsRename])
        | None => d
        end
    | IoDirSync => mkDir (d_files d) (d_vnew d) (d_vstate d) (d_vnew d) (d_vstate d) []
    | _ => d
    end.
  Definition dir_run (d : dirst) (l : list io) : dirst := fold_left dir_step l d.

  (** content of file [f] after a crash; [g] = 0: the bytes written, 1: nothing,
      S (S j): the bytes of the older file j (when there is one), for a file
      that was not fsynced *)
  Definition file_content (d : dirst) (g : nat) (f : nat) : sfile :=
    let written (c : option sfile) := match c with Some s => s | None => sfile_empty end in
    match nth_error (d_files d) f with
    | None => sfile_empty
    | Some (c, true) => written c
    | Some (c, false) =>
        match g with
        | O => written c
        | S O => sfile_empty
        | S (S j) => if j <? f then match nth_error (d_files d) j with
                                    | Some (c', _) => written c'
                                    | None => written c
                                    end
                     else written c
        end
    end.

  (** (state, state.new) after a crash: the first [k] pending name-space operations took effect *)
  Definition dir_crash (d : dirst) (k g : nat) : option sfile * option sfile :=
    let ns := fold_left ns_apply (firstn k (d_pend d)) (d_dnew d, d_dstate d) in
    (match snd ns with Some f => Some (file_content d g f) | None => None end,
     match fst ns with Some f => Some (file_content d g f) | None => None end).

  (** ---- the media and the crash ---- *)
  Record medium := mkMedium {
    m_data : list dwrite;          (* surviving data writes, oldest first *)
    m_index : list (nat * R);      (* surviving record writes, oldest first *)
    m_state : option sfile;        (* "state" *)
    m_new : option sfile           (* "state.new" (left over) *)
  }.
  Definition medium_empty : medium := mkMedium [] [] None None.

  Record choice := mkChoice {
    c_data : list bool;     (* one flag per PENDING data write of the prefix, in log order *)
    c_index : list bool;    (* one flag per record write of the prefix, in log order *)
    c_dirk : nat;           (* how many pending name-space operations took effect *)
    c_garb : nat            (* content of a file that was not fsynced *)
  }.

  (** the media after a crash at log prefix [l] (of a life that started on [base]) *)
  Definition crash_medium (base : medium) (l : list io) (c : choice) : medium :=
    let d := dir_run (dir_init (m_state base) (m_new base)) l in
    let '(st, nw) := dir_crash d (c_dirk c) (c_garb c) in
    mkMedium (m_data base ++ data_durable l ++ select (c_data c) (data_pending l))
             (m_index base ++ select (c_index c) (index_writes l))
             st nw.

  (** the upload whose bytes byte [z] of the block at [l] holds: the last surviving write covering it *)
  Fixpoint byte_owner (ws : list dwrite) (l : loc) (z : Z) (acc : option nat) : option nat :=
    match ws with
    | [] => acc
    | (u, l', lo, hi) :: t =>
        byte_owner t l z (if loc_eqb l' l && (lo <=? z)%Z && (z <? hi)%Z then Some u else acc)
    end.
End Medium.

Arguments IoData {R}. Arguments IoSyncBegin {R}. Arguments IoSyncEnd {R}. Arguments IoIndex {R}.
Arguments IoRemoveNew {R}. Arguments IoCreateNew {R}. Arguments IoWriteNew {R}. Arguments IoFsyncNew {R}.
Arguments IoRenameNew {R}. Arguments IoDirSync {R}.
Arguments mkMedium {R}. Arguments m_data {R}. Arguments m_index {R}. Arguments m_state {R}. Arguments m_new {R}.
Arguments medium_empty {R}.
Arguments crash_medium {R}. Arguments durable_upto {R}. Arguments pending_begin {R}. Arguments dur_scan {R}.
Arguments dur_step {R}.
Arguments data_durable {R}. Arguments data_pending {R}. Arguments data_from {R}. Arguments index_writes {R}.
Arguments slot_get {R}. Arguments dir_run {R}. Arguments dir_step {R}.
Arguments byte_owner : clear implicits.

(** ---- restart ---- *)
(** The geometry is the same across restarts: [geom l] says that [l] is one of
    the allocator's block regions.  NewPersistentBlockList on the surviving
    state file; no state file = newPersistentState() (oldest epoch id 1). *)
Definition restart (geom : loc -> bool) (st : option sfile) : pbl * nat :=
  match st with
  | None => pbl_new (fun l _ => geom l) 1 []
  | Some ((oldest, bl), _) => pbl_new (fun l _ => geom l) oldest bl
  end.

(** NewOldCurrentNewLocationBlobMap: how many of the restored blocks are cut
    off immediately (totalBlocksToBeReleased); immutable growth policy:
    blocks are promoted to "new"/"current" while current+new < desired. *)
Definition ocn_cut (old cur new restored : nat) : nat := restored - (cur + new) - old.

(** BlockDeviceBackedLocationRecordArray.Get on a restarted list, for a record
    whose reference is (epoch, bfl) and whose checksum verifies under exactly
    the seed [rseed]: block index, or invalid. *)
Definition resolve_ref (p : pbl) (cut : nat) (epoch bfl rseed : N) : option nat :=
  match ref_to_index epoch bfl p with
  | Ok (Some (i, seed)) => if (i <? cut) then None else if N.eqb seed rseed then Some i else None
  | _ => None
  end.

Definition block_loc (p : pbl) (i : nat) : option loc :=
  match nth_error (blocks p) i with Some b => Some (b_loc b) | None => None end.

(** NewBlockAtLocation: the restored allocation cursor, write offset rounded UP to a sector *)
Definition round_up (sector w : Z) : Z := ((w + sector - 1) / sector * sector)%Z.
