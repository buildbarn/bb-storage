(** Persist/LiveRelease.v — COVERAGE of a block release: a block removed by
    PopFront is absent from the state passed to the first
    WritePersistentState call that starts afterwards (the state's entries are
    the blocks at absolute indices >= totalBlocksReleased, which is larger than
    the popped block's index), it is among the blocks recorded by that call's
    GetPersistentState, and NotifyPersistentStateWritten for that call releases
    exactly the recorded blocks. *)
From Coq Require Import List NArith ZArith Bool Arith Lia.
From BBS Require Import Persist.PBL Persist.PBLProofs Persist.Syncer Persist.SyncerProofs
  Persist.LiveActs Persist.LiveCover.
Import ListNotations.

Definition rel_same (p p' : pbl) : Prop :=
  toRelease p' = toRelease p /\ releasing p' = releasing p /\ releasedLog p' = releasedLog p
  /\ totalReleased p' = totalReleased p.

Lemma act_rel a p p' : apply_act a p = Ok p' ->
  match a with
  | APop => exists fb rest, blocks p = fb :: rest /\ toRelease p' = toRelease p ++ [b_loc fb]
                            /\ releasing p' = releasing p /\ releasedLog p' = releasedLog p
                            /\ totalReleased p' = S (totalReleased p)
  | AGetState _ => toRelease p' = toRelease p /\ releasing p' = length (toRelease p)
                   /\ releasedLog p' = releasedLog p /\ totalReleased p' = totalReleased p
  | AWritten _ => toRelease p' = skipn (releasing p) (toRelease p) /\ releasing p' = 0
                  /\ releasedLog p' = releasedLog p ++ firstn (releasing p) (toRelease p)
                  /\ totalReleased p' = totalReleased p
  | _ => rel_same p p'
  end.
Proof.
  intros H. destruct (act_fields _ _ _ H) as (Fr & Fg & Fl & Ft & _).
  destruct a; try exact (conj Fr (conj Fg (conj Fl Ft))).
  destruct (blocks p) as [|fb rest] eqn:Eb; [unfold apply_act, pop_front in H; rewrite Eb in H; discriminate|].
  exists fb, rest. splits; auto.
Qed.

(** which loop is inside a WritePersistentState call *)
Definition wpc_of (t : tid) (s : sys) : option wpc :=
  match t with
  | TR => match s_r s with RW w => Some w | _ => None end
  | TP => match s_p s with PW _ w => Some w | _ => None end
  end.

Definition in_write (t : tid) (s : sys) : bool :=
  match wpc_of t s with Some (WWriting _) | Some WWritten => true | _ => false end.

Definition other (t : tid) : tid := match t with TR => TP | TP => TR end.

Lemma wstep_next cfg me w a s s1 w' : wstep cfg me w a s = Some (Ok (s1, w')) ->
  match w' with
  | Some (WWriting _) => w = WGetState
  | Some WWritten => exists st, w = WWriting st
  | _ => True
  end.
Proof. intros H. destruct (wstep_cases H); eauto. Qed.

Lemma act_own s t a w : wpc_of t s = Some w -> act_of s (EStep t a) = wact t w.
Proof.
  unfold wpc_of. destruct t; cbn [act_of].
  - destruct (s_r s) as [| |w0]; try discriminate. intros H; inversion H; reflexivity.
  - destruct (s_p s) as [| | | | | | | |k w0|]; try discriminate. intros H; inversion H; reflexivity.
Qed.

Lemma wact_inv s e t w : act_of s e = wact t w -> wact t w <> ANone ->
  wpc_of t s = Some w /\ exists a, e = EStep t a.
Proof.
  intros H Hn. destruct e as [alloc| |index size|k blk seed|d| |t' a]; cbn [act_of] in H.
  1-6: destruct w; try discriminate; try contradiction.
  1-2: destruct (nth_error _ _) as [[[tok sz]|]|]; discriminate.
  unfold wpc_of. destruct t'.
  - destruct (s_r s) as [| |w0]; [destruct w; try discriminate; contradiction..|].
    destruct w, w0; try discriminate; try contradiction; injection H as <-; eauto.
  - destruct (s_p s) as [| | | | | | | |k0 w0|]; try (destruct w; try discriminate; contradiction).
    destruct w, w0; try discriminate; try contradiction; injection H as <-; eauto.
Qed.

Lemma act_written_wpc s e t : act_of s e = AWritten t ->
  wpc_of t s = Some WWritten /\ exists a, e = EStep t a.
Proof. intros H. apply wact_inv; [exact H|discriminate]. Qed.

Lemma act_written_in_write s e t : act_of s e = AWritten t -> in_write t s = true.
Proof. intros H. unfold in_write. rewrite (proj1 (act_written_wpc _ _ _ H)). reflexivity. Qed.

Lemma written_state_wpc s t st : written_state s t = Some st <-> wpc_of t s = Some (WWriting st).
Proof.
  unfold wpc_of, written_state. destruct t.
  - destruct (s_r s) as [| |[]]; split; intros H; inversion H; reflexivity.
  - destruct (s_p s) as [| | | | | | | |k []|]; split; intros H; inversion H; reflexivity.
Qed.

Lemma written_in_write s t st : written_state s t = Some st -> in_write t s = true.
Proof. intros H. unfold in_write. rewrite (proj1 (written_state_wpc _ _ _) H). reflexivity. Qed.

Lemma holder_unique s t t' w w' : inv3 s -> wpc_of t s = Some w -> holds w = true ->
  wpc_of t' s = Some w' -> holds w' = true -> t' = t.
Proof.
  intros [_ Hx] H1 H2 H3 H4. unfold r_holds, p_holds, wpc_of in *.
  destruct t, t'; auto;
    destruct (s_r s) as [| |wr]; try discriminate;
    destruct (s_p s) as [| | | | | | | |k wp|]; try discriminate;
    inversion H1; inversion H3; subst; rewrite H2, H4 in Hx; discriminate.
Qed.

Lemma wpc_frame cfg s e s' t : inv1 s -> step cfg s e = Some (Ok s') -> (forall a, e <> EStep t a) ->
  wpc_of t s' = wpc_of t s.
Proof.
  intros II H Hne. unfold wpc_of. destruct t.
  - rewrite (r_frame _ _ _ _ II H Hne). reflexivity.
  - rewrite (p_frame _ _ _ _ II H Hne). reflexivity.
Qed.

Lemma wpc_own cfg s a s' t : step cfg s (EStep t a) = Some (Ok s') ->
  match wpc_of t s with
  | None => (wpc_of t s' = None \/ wpc_of t s' = Some WAcquire) /\ s_writes s' = s_writes s
  | Some w => exists s1, wstep cfg t w a s = Some (Ok (s1, wpc_of t s')) /\ s_writes s' = s_writes s1
  end.
Proof.
  destruct t; cbn [step]; unfold wpc_of; intros H.
  - destruct (rstep_cases H) as [Er|ch Er _|w s1 w' Er Hw]; rewrite Er; cbn; auto.
    exists s1. destruct w'; auto.
  - destruct (pstep_cases H) as [pc pc' Ep J|dl Ep _ _ _|keep Ep|Ep|keep final Ep _|keep w s1 w' Ep Hw];
      rewrite Ep; cbn; auto.
    + destruct J; cbn; auto.
    + exists s1. destruct w'; [|destruct keep]; auto.
Qed.

Lemma wstep_own cfg t s w a s1 w' : wpc_of t s = Some w -> wstep cfg t w a s = Some (Ok (s1, w')) ->
  exists s', step cfg s (EStep t a) = Some (Ok s') /\ wpc_of t s' = w'
    /\ s_pbl s' = s_pbl s1 /\ s_store s' = s_store s1.
Proof.
  unfold wpc_of. destruct t; cbn [step].
  - unfold rstep. destruct (s_r s) as [| |w0]; try discriminate. intros [= ->] ->.
    destruct w'; eexists; (split; [reflexivity|]); cbn; auto.
  - unfold pstep. destruct (s_p s) as [| | | | | | | |k w0|]; try discriminate. intros [= ->] ->.
    destruct w'; [|destruct k]; eexists; (split; [reflexivity|]); cbn; auto.
Qed.

Lemma step_wpc cfg s e s' t : inv1 s -> step cfg s e = Some (Ok s') ->
  match wpc_of t s' with
  | Some (WWriting st) => act_of s e = AGetState t \/ wpc_of t s = Some (WWriting st)
  | Some WWritten => (exists st, wpc_of t s = Some (WWriting st))
                     \/ (wpc_of t s = Some WWritten /\ act_of s e <> AWritten t)
  | _ => True
  end.
Proof.
  intros II H. destruct (t_or_not t e) as [[a ->]|Hne].
  - pose proof (wpc_own _ _ _ _ _ H) as Ho.
    destruct (wpc_of t s) as [w|] eqn:Ew.
    + destruct Ho as (s1 & Hs & _). pose proof (wstep_next _ _ _ _ _ _ _ Hs) as Hn.
      destruct (wpc_of t s') as [[]|]; auto.
      * left. rewrite (act_own _ _ _ _ Ew), Hn. reflexivity.
      * left. destruct Hn as [st ->]. eauto.
    + destruct Ho as [[-> | ->] _]; exact I.
  - rewrite (wpc_frame _ _ _ _ _ II H Hne).
    destruct (wpc_of t s) as [[]|] eqn:Ew; auto.
    right. split; [reflexivity|]. intros Ha. destruct (act_written_wpc _ _ _ Ha) as [_ [a0 E]].
    eapply Hne. exact E.
Qed.

Lemma step_in_write cfg s e s' t : inv1 s -> step cfg s e = Some (Ok s') -> in_write t s' = true ->
  (in_write t s = true /\ act_of s e <> AWritten t) \/ act_of s e = AGetState t.
Proof.
  intros II H Hw. pose proof (step_wpc cfg s e s' t II H) as S. unfold in_write in *.
  assert (forall st, wpc_of t s = Some (WWriting st) -> act_of s e <> AWritten t) as Hnw.
  { intros st E Ha. rewrite (proj1 (act_written_wpc _ _ _ Ha)) in E. discriminate. }
  destruct (wpc_of t s') as [[| |st| |]|]; try discriminate.
  - destruct S as [S|S]; [right; exact S|left]. rewrite S. split; [reflexivity|eapply Hnw; eauto].
  - left. destruct S as [[st S]|[S Hn]]; rewrite S; (split; [reflexivity|]); [eapply Hnw; eauto|exact Hn].
Qed.

Lemma in_write_excl s t : inv3 s -> in_write t s = true -> in_write (other t) s = false.
Proof.
  intros [_ Hx] H. unfold in_write, wpc_of, r_holds, p_holds in *.
  destruct t; cbn [other];
    destruct (s_r s) as [| |[]]; destruct (s_p s) as [| | | | | | | |? []|]; cbn in *; congruence.
Qed.

(** no GetPersistentState along a schedule *)
Definition is_getstate (a : act) : bool := match a with AGetState _ => true | _ => false end.

Fixpoint no_getstate (cfg : config) (s : sys) (tr : list event) : bool :=
  match tr with
  | [] => true
  | e :: tr' =>
      match step cfg s e with
      | Some (Ok s') => negb (is_getstate (act_of s e)) && no_getstate cfg s' tr'
      | _ => true
      end
  end.

(** the popped block stays in blocksToRelease, beyond the recorded count *)
Definition pending_rel (l : loc) (p : pbl) : Prop :=
  exists pre post, toRelease p = pre ++ l :: post /\ releasing p <= length pre.

Lemma act_pending l a p p' : is_getstate a = false -> apply_act a p = Ok p' ->
  pending_rel l p -> pending_rel l p' /\ totalReleased p <= totalReleased p'.
Proof.
  intros Hng Ha [pre [post [Ht Hr]]]. destruct (act_fields _ _ _ Ha) as (R1 & R2 & _ & R4 & _).
  split; [|destruct a; lia]. unfold pending_rel. rewrite R1, R2, Ht.
  destruct a as [|al| |tok blk size seed| |b|t|t]; try discriminate; try (exists pre, post; auto; fail).
  - exists pre, (post ++ map b_loc (firstn 1 (blocks p))). rewrite <- app_assoc. auto.
  - exists (skipn (releasing p) pre), post. rewrite skipn_app.
    replace (releasing p - length pre) with 0 by lia. cbn [skipn]. split; [reflexivity|lia].
Qed.

Lemma run_pending cfg l tr : forall s s', linv s -> pending_rel l (s_pbl s) ->
  run cfg s tr = Some (Ok s') -> no_getstate cfg s tr = true ->
  pending_rel l (s_pbl s') /\ totalReleased (s_pbl s) <= totalReleased (s_pbl s').
Proof.
  induction tr as [|e tr IH]; intros s s' I P H Hn; cbn in *.
  - injection H as <-. auto.
  - destruct (step cfg s e) as [[s1|]|] eqn:Es; try discriminate.
    apply andb_true_iff in Hn. destruct Hn as [Hn1 Hn2]. apply negb_true_iff in Hn1.
    destruct (act_pending l _ _ _ Hn1 (step_act _ _ _ _ Es) P) as [P1 Hle].
    destruct (IH _ _ (step_linv _ _ _ _ I Es) P1 H Hn2) as [P' Hle']. split; [exact P'|lia].
Qed.

(** while thread [t] is inside the write, the recorded blocks are [R] and the
    other loop is not inside a write *)
Definition recorded (t : tid) (R : list loc) (s : sys) : Prop :=
  (in_write t s = true -> firstn (releasing (s_pbl s)) (toRelease (s_pbl s)) = R)
  /\ in_write (other t) s = false.

Lemma other_cases t t' : t' = t \/ t' = other t.
Proof. destruct t, t'; cbn; auto. Qed.

Lemma written_by s e t t' : in_write (other t) s = false -> act_of s e = AWritten t' -> t' = t.
Proof.
  intros Ho Ha. pose proof (act_written_in_write _ _ _ Ha) as Hw.
  destruct (other_cases t t') as [-> | ->]; [reflexivity|congruence].
Qed.

Lemma step_recorded cfg t R s e s' : linv s -> recorded t R s ->
  step cfg s e = Some (Ok s') -> is_getstate (act_of s e) = false -> recorded t R s'.
Proof.
  intros [I1 _] [HR Ho] H Hng. split.
  - intros Hw. destruct (step_in_write _ _ _ _ _ I1 H Hw) as [[Hw0 Hna]|Hg];
      [|rewrite Hg in Hng; discriminate].
    specialize (HR Hw0). destruct (act_fields _ _ _ (step_act _ _ _ _ H)) as (R1 & R2 & _). rewrite R1, R2.
    destruct (act_of s e) as [|al| |tok blk size seed| |b|t1|t1] eqn:Ea; try exact HR; try discriminate.
    + rewrite firstn_app. pose proof (i_rel _ (proj1 I1)) as Hle.
      replace (releasing (s_pbl s) - length (toRelease (s_pbl s))) with 0 by lia.
      cbn [firstn]. rewrite app_nil_r. exact HR.
    + exfalso. apply Hna. rewrite (written_by s e t t1 Ho Ea). reflexivity.
  - destruct (in_write (other t) s') eqn:Hw; [|reflexivity].
    destruct (step_in_write _ _ _ _ _ I1 H Hw) as [[Hw0 _]|Hg]; [congruence|rewrite Hg in Hng; discriminate].
Qed.

Lemma run_recorded cfg t R tr : forall s s', linv s -> recorded t R s ->
  run cfg s tr = Some (Ok s') -> no_getstate cfg s tr = true -> recorded t R s'.
Proof.
  induction tr as [|e tr IH]; intros s s' I P H Hn; cbn in *.
  - injection H as <-. auto.
  - destruct (step cfg s e) as [[s1|]|] eqn:Es; try discriminate.
    apply andb_true_iff in Hn. destruct Hn as [Hn1 Hn2]. apply negb_true_iff in Hn1.
    eapply IH; [eapply step_linv; eauto| |exact H|exact Hn2]. eapply step_recorded; eauto.
Qed.

Lemma step_inv3' cfg s e s' : inv3 s -> step cfg s e = Some (Ok s') -> inv3 s'.
Proof. exact (step_inv3 cfg s e s'). Qed.

(** COVERAGE of a block release.  Schedule = ... PopFront removing block [fb]
    (step i), [trA] without any GetPersistentState, a step [e4] of loop [t]
    that calls GetPersistentState and starts WritePersistentState (the first
    state write started after i).  Then: the state [st] passed to the store
    consists of blocks still in the list (entry j = block j of the current
    list, whose absolute index totalBlocksReleased + j exceeds the popped
    block's index totalBlocksReleased(before the pop)); the popped block is
    among the blocks recorded ([blocksToRelease] at that moment); and if —
    after [trB] without a further GetPersistentState — a loop [t'] runs
    NotifyPersistentStateWritten, it is that same write ([t' = t], it cannot
    have failed in between) and exactly the recorded blocks are Release()d. *)
Theorem release_covered_seg cfg s1 fb rest s1' trA s4 e4 s4' t :
  linv s1 -> inv3 s1 ->
  blocks (s_pbl s1) = fb :: rest -> step cfg s1 EPopFront = Some (Ok s1') ->
  run cfg s1' trA = Some (Ok s4) -> no_getstate cfg s1' trA = true ->
  step cfg s4 e4 = Some (Ok s4') -> act_of s4 e4 = AGetState t ->
  In (b_loc fb) (toRelease (s_pbl s4))
  /\ totalReleased (s_pbl s1) < totalReleased (s_pbl s4)
  /\ (exists st, written_state s4' t = Some st /\
        forall j e, nth_error (snd st) j = Some e ->
          exists b, nth_error (blocks (s_pbl s4)) j = Some b /\ bs_loc e = b_loc b)
  /\ forall trB s5 e5 s5' t',
       run cfg s4' trB = Some (Ok s5) -> no_getstate cfg s4' trB = true ->
       step cfg s5 e5 = Some (Ok s5') -> act_of s5 e5 = AWritten t' ->
       t' = t /\ releasedLog (s_pbl s5') = releasedLog (s_pbl s5) ++ toRelease (s_pbl s4).
Proof.
  intros I1 J1 Eb Hs1 HA HnA H4 Hg.
  pose proof (step_linv _ _ _ _ I1 Hs1) as I1'.
  destruct (act_fields _ _ _ (step_act _ _ _ _ Hs1)) as (R1 & R2 & _ & R4 & _).
  cbn [act_of] in R1, R2, R4. rewrite Eb in R1. cbn [map firstn] in R1.
  assert (pending_rel (b_loc fb) (s_pbl s1')) as P1.
  { exists (toRelease (s_pbl s1)), []. split; [exact R1|]. rewrite R2. apply (i_rel _ (proj1 (proj1 I1))). }
  destruct (run_pending _ _ _ _ _ I1' P1 HA HnA) as [[pre [post [Ht Hr]]] Hle].
  pose proof (run_linv _ _ _ _ I1' HA) as I4. pose proof (step_linv _ _ _ _ I4 H4) as I4'.
  assert (inv3 s4') as J4'.
  { eapply step_inv3; [|exact H4]. eapply (run_preserves cfg inv3 (step_inv3 cfg)); [|exact HA].
    eapply step_inv3; eauto. }
  destruct (getstate_step _ _ _ _ _ H4 Hg) as [p4 [st [Hgs [Hw [Hp4 _]]]]].
  destruct (gps_fields _ _ _ Hgs) as [_ [F1 [F2 [_ [_ [_ [_ Hloop]]]]]]].
  split; [rewrite Ht; apply in_or_app; right; left; reflexivity|].
  split; [lia|].
  split.
  { exists st. split; [exact Hw|]. intros j e Hn.
    destruct (gps_prefix _ _ _ _ _ _ _ Hloop Hn) as [b [Hb [Hl _]]]. exists b. auto. }
  intros trB s5 e5 s5' t' HB HnB H5 Ha5.
  pose proof (written_in_write _ _ _ Hw) as Hin.
  assert (recorded t (toRelease (s_pbl s4)) s4') as Rc.
  { split; [|apply in_write_excl; assumption]. intros _. rewrite Hp4, F1, F2. apply firstn_all. }
  pose proof (run_recorded _ _ _ _ _ _ I4' Rc HB HnB) as [Rc5 Ro5].
  pose proof (written_by _ _ _ _ Ro5 Ha5) as ->. pose proof (act_written_in_write _ _ _ Ha5) as Hin5.
  split; [reflexivity|].
  pose proof (act_rel _ _ _ (step_act _ _ _ _ H5)) as R5. rewrite Ha5 in R5.
  destruct R5 as [_ [_ [R5 _]]]. rewrite R5, (Rc5 Hin5). reflexivity.
Qed.
