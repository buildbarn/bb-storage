(** Persist/CrashRepeatShadow.v — the first-life invariants hold along the
    shadow run (Persist/CrashRepeatSim.v) of a life that starts on ANY medium
    whose state file restores duplicate-free seeds and duplicate-free regions
    ([base_ok]); their record-independent consequences are transferred to the
    real run:
      [region_reuse_any_base]   a region is handed out again only after a state
                                file without the block is durable ([reuse_witness]);
      [regions_partition_any_base], [ginv_any_base], [state_writes_ok_any_base].
    Stdlib only; no axioms. *)
From Coq Require Import List NArith ZArith Bool Arith Lia Permutation.
From BBS Require Import Persist.PBL Persist.PBLProofs Persist.Syncer Persist.SyncerProofs
                        Persist.Crash Persist.CrashLts.
From BBS Require Import Persist.CrashReuseProofs Persist.CrashEpochProofs Persist.CrashRepeatSim.
Import ListNotations.

Local Notation log := (list (io irec)).

Lemma restore_shape alloc init : forall n bl seeds lasts,
  restore_blocks alloc init n = (bl, seeds, lasts) ->
  lasts = A.elast_of n (map b_epochs bl) /\ length lasts = length seeds /\
  (forall l, In l (map b_loc bl) -> exists w, alloc l w = true) /\
  (forall x, In x bl -> b_syncing x = b_written x /\ b_synced x = b_written x).
Proof.
  induction init as [|bs rest IH]; intros n bl seeds lasts H; cbn in H.
  - inv H. cbn. splits; auto; intros ? [].
  - destruct (alloc (bs_loc bs) (bs_off bs)) eqn:Ea.
    + destruct (restore_blocks alloc rest (S n)) as [[bl' seeds'] lasts'] eqn:E. inv H.
      destruct (IH _ _ _ _ E) as (I1 & I2 & I3 & I4). cbn. splits.
      * rewrite I1. reflexivity.
      * rewrite !app_length, repeat_length, I2. reflexivity.
      * intros l [<-|Hl]; eauto.
      * intros x [<-|Hx]; cbn; auto.
    + inv H. cbn. splits; auto; intros ? [].
Qed.

Lemma restart_is_new gm st : exists oldest bl, restart gm st = pbl_new (fun l _ => gm l) oldest bl.
Proof. destruct st as [[[oldest bl] h]|]; [exists oldest, bl|exists 1%N, []]; reflexivity. Qed.

Lemma restart_shape g st : let p := fst (restart (geom g) st) in
  epochLast p = A.elast_of 0 (map b_epochs (blocks p)) /\ length (epochLast p) = length (epochSeeds p) /\
  totalReleased p = 0 /\ toRelease p = [] /\ closedForWriting p = false /\
  (forall l, In l (map b_loc (blocks p)) -> In l (g_locs g)) /\
  (forall x, In x (blocks p) -> b_syncing x = b_written x /\ b_synced x = b_written x).
Proof.
  destruct (restart_is_new (geom g) st) as (oldest & bl & ->). unfold pbl_new.
  destruct (restore_blocks _ bl 0) as [[bl' seeds] lasts] eqn:E. cbn.
  destruct (restore_shape _ _ _ _ _ _ E) as (I1 & I2 & I3 & I4). splits; auto.
  intros l Hl. destruct (I3 l Hl) as [_ Hg]. unfold geom in Hg. apply existsb_exists in Hg.
  destruct Hg as (x & Hx & Hex). apply loc_eqb_eq in Hex. subst. exact Hx.
Qed.

Lemma rev_cons_perm {X} (t : list X) z r : rev t = z :: r -> Permutation (z :: rev r) t.
Proof.
  intros H. apply (f_equal (@rev X)) in H. rewrite rev_involutive in H. cbn in H. subst t.
  apply Permutation_cons_append.
Qed.

Lemma swap_remove_perm l x : In x l -> Permutation (x :: swap_remove l x) l.
Proof.
  induction l as [|y t IH]; cbn; [intros []|]. intros Hin.
  destruct (loc_eqb y x) eqn:E.
  - apply loc_eqb_eq in E. subst y. constructor.
    destruct (rev t) as [|z r] eqn:Er.
    + destruct t; [constructor|]. cbn in Er. destruct (rev t); discriminate.
    + apply rev_cons_perm. exact Er.
  - destruct Hin as [->|Hin]; [rewrite loc_eqb_refl in E; discriminate|].
    eapply Permutation_trans; [apply perm_swap|]. constructor. apply IH. exact Hin.
Qed.

Lemma fold_swap_perm locs : forall G, NoDup locs -> (forall x, In x locs -> In x G) ->
  Permutation (locs ++ fold_left swap_remove locs G) G.
Proof.
  induction locs as [|x r IH]; intros G Hnd Hin; cbn; [reflexivity|].
  inv Hnd. pose proof (swap_remove_perm G x (Hin x (or_introl eq_refl))) as P.
  eapply Permutation_trans; [|exact P]. constructor. apply IH; [assumption|].
  intros y Hy. assert (In y (x :: swap_remove G x)) as [->|H].
  { eapply Permutation_in; [apply Permutation_sym; exact P|]. apply Hin. right. exact Hy. }
  - contradiction.
  - exact H.
Qed.

(** what the restart needs of the medium *)
Definition base_ok (g : geo) (base : medium irec) : Prop :=
  NoDup (epochSeeds (fst (restart (geom g) (m_state base)))) /\
  NoDup (map b_loc (blocks (fst (restart (geom g) (m_state base))))).

Definition shinit (g : geo) (base : medium irec) (t0 : N) : cst := with_index (cinit g base t0) [] [].

Lemma sim_init g base t0 : sim (cinit g base t0) (shinit g base t0).
Proof. split; [reflexivity|constructor]. Qed.

(** the invariants of the first-life development, together *)
Record SH (g : geo) (cur0 : list Z) (c : cst) : Prop := mkSH {
  sh_a : A.cinv g c;
  sh_r : rinv g c;
  sh_k : exists K kin, kinv g K kin c;
  sh_al : A.ainv cur0 c;
  sh_1 : inv1 (cs_sys c);
  sh_3 : inv3 (cs_sys c);
  sh_s : shinv c
}.

Lemma ainv_wf_ups cur0 c : A.ainv cur0 c -> wf_ups c.
Proof.
  intros AI k l lo hi Hin. destruct (A.ai_data _ _ AI _ _ _ _ Hin) as (u & U1 & U2 & _). eauto.
Qed.

Lemma SH_step g cfg cur0 c e c' : length (g_locs g) < 65536 -> NoDup (g_locs g) ->
  SH g cur0 c -> cstep g cfg c e = Some c' -> SH g cur0 c'.
Proof.
  intros Hg Hnd [HA HR [K [kin HK]] HAl H1 H3 HS] H.
  pose proof (ainv_wf_ups _ _ HAl) as Wf.
  destruct (cstep_sysinv _ _ _ _ _ H1 H3 H) as [J1 J3].
  constructor.
  - exact (A.cstep_cinv _ _ _ _ _ Hg HA H).
  - exact (rinv_step _ _ _ _ _ Hnd HR HA Wf H).
  - exact (kinv_step _ _ _ _ _ _ _ Hnd HK HA HR Wf H1 H3 HS H).
  - exact (A.cstep_ainv _ _ _ _ _ _ HAl H).
  - exact J1.
  - exact J3.
  - exact (shinv_step _ _ _ _ _ H3 HS H).
Qed.

Lemma SH_init g base t0 : NoDup (g_locs g) -> base_ok g base ->
  SH g (cs_cur (cinit g base t0)) (shinit g base t0).
Proof.
  intros Hnd [Hs Hl]. set (p := fst (restart (geom g) (m_state base))) in *.
  destruct (restart_shape g (m_state base)) as (R1 & R2 & R3 & R4 & R5 & R6 & _). fold p in R1, R2, R3, R4, R5, R6.
  assert (HP : Permutation (map b_loc (blocks p) ++ fold_left swap_remove (map b_loc (blocks p)) (g_locs g)) (g_locs g))
    by (apply fold_swap_perm; auto).
  unfold shinit, cinit. fold p.
  constructor.
  - (* A.cinv *)
    constructor; cbn [cs_sys cs_log cs_ups cs_tbl cs_locs cs_cur cs_free cs_held cs_seeds cs_elast with_index s_pbl init_sys
                      s_uploads s_r s_p A.abss map].
    + constructor.
      * rewrite R3. exact R1.
      * exists 0. cbn. repeat split; auto. lia.
      * exact R2.
      * exact Hs.
    + rewrite R3. reflexivity.
    + rewrite R3, map_length. reflexivity.
    + rewrite R4. cbn. apply Permutation_length in HP. rewrite app_length, map_length in HP. lia.
    + constructor.
    + constructor.
    + constructor.
    + discriminate.
    + discriminate.
  - (* rinv *)
    constructor; cbn [cs_sys cs_log cs_ups cs_locs cs_free cs_held with_index].
    + unfold regions. cbn [cs_sys cs_free cs_held with_index s_pbl init_sys]. rewrite R4. cbn [app].
      rewrite app_nil_r. exact HP.
    + intros l _. reflexivity.
    + intros k u a2 l H. destruct k; discriminate.
    + intros p1 p2 k1 k2 l lo1 hi1 lo2 hi2 u1 u2 _ H. destruct p1; discriminate.
    + intros k u H. destruct k; discriminate.
  - (* kinv *)
    exists (fun _ => 0), 0.
    assert (HndR : NoDup (map b_loc (blocks p) ++ fold_left swap_remove (map b_loc (blocks p)) (g_locs g))).
    { eapply Permutation_NoDup; [apply Permutation_sym; exact HP|exact Hnd]. }
    constructor; cbn [cs_sys cs_log cs_ups cs_locs cs_free cs_held with_index].
    + intros p1 p2 st1 st2 _ H. destruct p1; discriminate.
    + intros q st H. destruct q; discriminate.
    + intros q st h H. destruct q; discriminate.
    + intros st H. cbn in H. discriminate.
    + intros [H|H]; cbn in H; [congruence|discriminate].
    + intros H. cbn in H. discriminate.
    + intros l a Hin Hn. exfalso. rewrite app_nil_r in Hin.
      eapply (nodup_app_disj _ _ l HndR); [eapply nth_error_In; eauto|exact Hin].
    + intros a a' l Hlt N1 N2. exfalso.
      assert (a = a'); [|lia].
      eapply (proj1 (NoDup_nth_error _) Hl); [apply nth_error_Some; congruence|congruence].
    + intros p' k' l lo hi u' a H. destruct p'; discriminate.
  - (* ainv *)
    constructor; cbn [cs_sys cs_log cs_ups cs_locs cs_cur with_index].
    + unfold restored_cursors. rewrite !map_length. reflexivity.
    + intros k u H. destruct k; discriminate.
    + intros k u H. destruct k; discriminate.
    + intros k u H. destruct k; discriminate.
    + intros k1 k2 u1 u2 _ H. destruct k1; discriminate.
    + intros k l lo hi [].
    + intros j x H. exists x. split; [exact H|lia].
    + intros k u x H. destruct k; discriminate.
  - cbn. apply restart_inv1.
  - apply init_inv3.
  - split; [intros q e Hq; destruct q; discriminate|]. cbn. discriminate.
Qed.

Lemma SH_ginv g cur0 c ch : sim c ch -> SH g cur0 ch -> A.ginv (s_pbl (cs_sys c)) (cs_seeds c) (cs_elast c).
Proof.
  intros S HSH. destruct (sim_fields _ _ S) as (F1 & _ & _ & _ & _ & _ & _ & F8 & F9 & _).
  rewrite <- F1, <- F8, <- F9. exact (A.ci_g _ _ (sh_a _ _ _ HSH)).
Qed.

Lemma SH_tok g cur0 c ch : sim c ch -> SH g cur0 ch -> Forall2 A.tok_rel (A.abss c) (s_uploads (cs_sys c)).
Proof.
  intros S HSH. destruct (sim_fields _ _ S) as (F1 & F2 & _).
  unfold A.abss. rewrite <- F1, <- F2. exact (A.ci_tok _ _ (sh_a _ _ _ HSH)).
Qed.

(** every real run from [cinit g base t0] is shadowed *)
Lemma shadow_step g cfg cur0 c ch e c' : length (g_locs g) < 65536 -> NoDup (g_locs g) ->
  sim c ch -> SH g cur0 ch -> cstep g cfg c e = Some c' -> exists ch', sim c' ch' /\ SH g cur0 ch'.
Proof.
  intros Hg Hnd S HSH H.
  destruct (sim_step _ _ _ _ _ _ (SH_tok _ _ _ _ S HSH) S H) as (ch1 & Hs1 & S1).
  exists ch1. split; [exact S1|]. eapply SH_step; eauto.
Qed.

Lemma shadow_crun g cfg cur0 tr : length (g_locs g) < 65536 -> NoDup (g_locs g) ->
  forall c ch c', sim c ch -> SH g cur0 ch -> crun g cfg c tr = Some c' ->
  exists ch', sim c' ch' /\ SH g cur0 ch'.
Proof.
  intros Hg Hnd. induction tr as [|e tr IH]; intros c ch c' S HSH H; cbn in H.
  - inv H. eauto.
  - destruct (cstep g cfg c e) as [c1|] eqn:Es; [|discriminate].
    destruct (shadow_step _ _ _ _ _ _ _ Hg Hnd S HSH Es) as (ch1 & S1 & HSH1). eapply IH; eauto.
Qed.

Theorem shadow_exists g cfg base t0 c : length (g_locs g) < 65536 -> NoDup (g_locs g) -> base_ok g base ->
  creach g cfg base t0 c -> exists ch, sim c ch /\ SH g (cs_cur (cinit g base t0)) ch.
Proof.
  intros Hg Hnd Hb [tr H]. eapply shadow_crun; eauto; [apply sim_init|apply SH_init; auto].
Qed.

Lemma sim_kd c ch K n : sim c ch -> kd K (firstn n (cs_log c)) = kd K (firstn n (cs_log ch)).
Proof. intros S. unfold kd, dlw. rewrite (erel_dscan _ _ (sim_firstn _ _ n S)). reflexivity. Qed.

(** a block's region is handed out again only after a state file without it is durable — for a
    life that starts on any medium *)
Theorem region_reuse_any_base g cfg base t0 c : length (g_locs g) < 65536 -> NoDup (g_locs g) ->
  base_ok g base -> creach g cfg base t0 c -> exists K, reuse_witness c K.
Proof.
  intros Hg Hnd Hb R. destruct (shadow_exists _ _ _ _ _ Hg Hnd Hb R) as (ch & S & HSH).
  destruct (sh_k _ _ _ HSH) as (K & kin & [M B St I0 R0 W0 F D T]).
  destruct (sim_fields _ _ S) as (F1 & F2 & F3 & F4 & F5 & F6 & F7 & F8 & F9 & F10).
  assert (NW : forall q st, nth_error (cs_log c) q = Some (IoWriteNew st) -> nth_error (cs_log ch) q = Some (IoWriteNew st)).
  { intros q st. apply (sim_nth_noindex _ _ _ _ S). intros; discriminate. }
  exists K. constructor.
  - eapply erel_shaped; [exact (proj2 S)|]. apply (proj1 (sh_s _ _ _ HSH)).
  - intros p1 p2 st1 st2 Hle H1 H2. eapply M; eauto.
  - intros p st h H. rewrite <- F8, <- F9, <- F3. eapply St; eauto.
  - intros p' k' l lo hi u' a H Hu Hlt Hl. rewrite (sim_kd _ _ K p' S).
    rewrite <- F2 in Hu. rewrite <- F3 in Hl. eapply T; eauto.
    apply (sim_nth_noindex _ _ _ _ S); [intros; discriminate|exact H].
Qed.

(** the regions of the list, of the blocks awaiting release, of the free list and of the regions
    held for open writers partition the device *)
Theorem regions_partition_any_base g cfg base t0 c : length (g_locs g) < 65536 -> NoDup (g_locs g) ->
  base_ok g base -> creach g cfg base t0 c ->
  NoDup (skipn (totalReleased (s_pbl (cs_sys c))) (cs_locs c) ++ toRelease (s_pbl (cs_sys c)) ++ cs_free c ++ cs_held c)
  /\ map b_loc (blocks (s_pbl (cs_sys c))) = skipn (totalReleased (s_pbl (cs_sys c))) (cs_locs c).
Proof.
  intros Hg Hnd Hb R. destruct (shadow_exists _ _ _ _ _ Hg Hnd Hb R) as (ch & S & HSH).
  destruct (sim_fields _ _ S) as (F1 & F2 & F3 & F4 & F5 & F6 & F7 & F8 & F9 & F10).
  pose proof (A.ci_locs _ _ (sh_a _ _ _ HSH)) as HL.
  pose proof (proj1 (rinv_window _ _ Hnd (sh_r _ _ _ HSH) (sh_a _ _ _ HSH))) as HN.
  unfold regions in HN. rewrite HL in HN. rewrite F1, F3 in HL. rewrite F1, F3, F5, F6 in HN. auto.
Qed.

(** the ghost seed tables describe the block list *)
Theorem ginv_any_base g cfg base t0 c : length (g_locs g) < 65536 -> NoDup (g_locs g) ->
  base_ok g base -> creach g cfg base t0 c ->
  A.ginv (s_pbl (cs_sys c)) (cs_seeds c) (cs_elast c).
Proof.
  intros Hg Hnd Hb R. destruct (shadow_exists _ _ _ _ _ Hg Hnd Hb R) as (ch & S & HSH).
  exact (SH_ginv _ _ _ _ S HSH).
Qed.

(** every state write of the log lists a window of the block list *)
Theorem state_writes_ok_any_base g cfg base t0 c : length (g_locs g) < 65536 -> NoDup (g_locs g) ->
  base_ok g base -> creach g cfg base t0 c ->
  forall q st h, nth_error (cs_log c) q = Some (IoWriteNew (st, h)) ->
    A.st_ok (cs_seeds c) (cs_elast c) (cs_locs c) st.
Proof.
  intros Hg Hnd Hb R q st h Hq. destruct (shadow_exists _ _ _ _ _ Hg Hnd Hb R) as (ch & S & HSH).
  destruct (sim_fields _ _ S) as (F1 & F2 & F3 & F4 & F5 & F6 & F7 & F8 & F9 & F10).
  pose proof (A.ci_log _ _ (sh_a _ _ _ HSH)) as L. rewrite Forall_forall in L.
  assert (Hq' : nth_error (cs_log ch) q = Some (IoWriteNew (st, h))).
  { apply (sim_nth_noindex _ _ _ _ S); [intros; discriminate|exact Hq]. }
  specialize (L _ (nth_error_In _ _ Hq')). cbn in L. rewrite F8, F9, F3 in L. exact L.
Qed.

Print Assumptions region_reuse_any_base.
