(** Persist/CrashOffsetsProofs.v — write offsets across a crash + restart.

    [no_overwrite_after_restart_block]: any base medium; every data
      write of the new life into a restored block lies at or above the
      restored write offset rounded up to a sector.
    [restored_offsets_cover]: first life; for every record that
      resolves after a crash at ANY log prefix under ANY loss choice, the
      restored block it resolves to has a restored write offset
      ([b_written] = [bs_off] of the surviving state file) at or above the end
      of the record's location.
    [committed_space_not_overwritten_in_restored_block]: the two together.
    [upload_writes_tile]: the data writes of one upload tile its
      allocation.

    No model definitions; stdlib only; no axioms. *)
From Coq Require Import List NArith ZArith Bool Arith Lia.
From BBS Require Import Persist.PBL Persist.PBLProofs Persist.Syncer Persist.SyncerProofs
                        Persist.Crash Persist.CrashLts.
From BBS Require Persist.CrashEpochProofs.
From BBS Require Import Persist.CrashAllocProofs.
Import ListNotations.

Module E := BBS.Persist.CrashEpochProofs.

Set Warnings "-abstract-large-number".

Theorem no_overwrite_after_restart_block : forall g cfg base t0 c, (0 < g_sector g)%Z ->
  creach g cfg base t0 c ->
  forall q k l lo hi, nth_error (cs_log c) q = Some (IoData k l lo hi) ->
  forall up i b, nth_error (cs_ups c) k = Some up -> up_abs up = i ->
    nth_error (blocks (fst (restart (geom g) (m_state base)))) i = Some b ->
    (b_written b <= round_up (g_sector g) (b_written b) <= lo)%Z.
Proof.
  intros g cfg base t0 c Hs R q k l lo hi Hq up i b Hup Hi Hb. subst i.
  destruct (alloc_disjoint _ _ _ _ _ R) as (_ & _ & D).
  destruct (D k l lo hi (nth_error_In _ _ Hq)) as (u & U1 & U2 & U3).
  rewrite Hup in U1. inv U1.
  destruct (alloc_above_restored_offset _ _ _ _ _ Hs R) as (_ & A).
  destruct (A _ _ _ Hup Hb). lia.
Qed.

Lemma nth_error_map_inv {A B} (f : A -> B) l i y :
  nth_error (map f l) i = Some y -> exists x, nth_error l i = Some x /\ y = f x.
Proof.
  rewrite nth_error_map. destruct (nth_error l i) as [x|]; cbn; [|discriminate].
  intros H; inv H. eauto.
Qed.

Lemma set_written_nth bs : forall i w j b',
  nth_error (set_written bs i w) j = Some b' ->
  exists b, nth_error bs j = Some b /\ (b_written b <= b_written b')%Z /\
    b_syncing b' = b_syncing b /\ b_synced b' = b_synced b /\ (j = i -> (w <= b_written b')%Z).
Proof.
  induction bs as [|b0 bs IH]; intros i w j b' H.
  - destruct i; cbn in H; rewrite nth_error_nil' in H; discriminate.
  - destruct i as [|i], j as [|j]; cbn in H.
    + inv H. exists b0. destruct (Z.ltb_spec (b_written b0) w); cbn; splits; auto; lia.
    + exists b'. splits; auto; try lia; try discriminate.
    + inv H. exists b'. splits; auto; try lia; try discriminate.
    + destruct (IH _ _ _ _ H) as (b & B1 & B2 & B3 & B4 & B5). exists b. cbn. splits; auto; intros Hj; apply B5; lia.
Qed.

Lemma bump_nth bs : forall j b',
  nth_error (bump_last_epoch_count bs) j = Some b' ->
  exists b, nth_error bs j = Some b /\ b_written b' = b_written b /\
    b_syncing b' = b_syncing b /\ b_synced b' = b_synced b.
Proof.
  induction bs as [|b0 bs IH]; intros j b' H; [destruct j; discriminate|].
  destruct bs as [|b1 bs].
  - destruct j as [|j]; cbn in H; [|rewrite nth_error_nil' in H; discriminate].
    inv H. exists b0. cbn. auto.
  - change (bump_last_epoch_count (b0 :: b1 :: bs)) with (b0 :: bump_last_epoch_count (b1 :: bs)) in H.
    destruct j as [|j]; cbn [nth_error] in H.
    + inv H. exists b'. auto.
    + apply IH in H. exact H.
Qed.

Lemma bump_length bs : length (bump_last_epoch_count bs) = length bs.
Proof.
  induction bs as [|b0 bs IH]; [reflexivity|]. destruct bs as [|b1 bs]; [reflexivity|].
  change (bump_last_epoch_count (b0 :: b1 :: bs)) with (b0 :: bump_last_epoch_count (b1 :: bs)).
  cbn [length]. rewrite IH. reflexivity.
Qed.

Lemma NoDup_skipn {A} k (l : list A) : NoDup l -> NoDup (skipn k l).
Proof.
  revert l. induction k; intros l H; cbn; [exact H|]. destruct l; [constructor|]. inv H. auto.
Qed.

Lemma put_finalize_view tok blk size seed p p' fr :
  put_finalize tok blk size seed p = Ok (p', fr) ->
  totalReleased p' = totalReleased p /\ synchronizingEpochs p' = synchronizingEpochs p /\
  synchronizedEpochs p' = synchronizedEpochs p /\ length (blocks p') = length (blocks p) /\
  (epochSeeds p' = epochSeeds p \/ epochSeeds p' = epochSeeds p ++ [seed]) /\
  (forall i b', nth_error (blocks p') i = Some b' ->
     exists b, nth_error (blocks p) i = Some b /\ (b_written b <= b_written b')%Z /\
       b_syncing b' = b_syncing b /\ b_synced b' = b_synced b) /\
  (forall off, fr = FinOk off -> exists abs, tok = PutAt abs /\ blk = Some off /\
     totalReleased p <= abs /\ abs - totalReleased p < length (blocks p) /\
     forall b', nth_error (blocks p') (abs - totalReleased p) = Some b' -> (off + size <= b_written b')%Z).
Proof.
  intros H. destruct (put_finalize_cases _ _ _ _ _ _ _ H)
    as [[-> Hn]|(abs & off & -> & -> & -> & Ec & Hle & Hlt & Hc)].
  { splits; auto.
    - intros i b' Hb. exists b'. splits; auto; lia.
    - intros off Ho. destruct (Hn _ Ho). }
  cbv zeta in Hc. set (bl1 := set_written (blocks p) (abs - totalReleased p) (off + size)%Z) in *.
  assert (Hsw : forall i b', nth_error bl1 i = Some b' ->
     exists b, nth_error (blocks p) i = Some b /\ (b_written b <= b_written b')%Z /\
       b_syncing b' = b_syncing b /\ b_synced b' = b_synced b /\
       (i = abs - totalReleased p -> (off + size <= b_written b')%Z)).
  { intros i b' H'. eapply set_written_nth; eauto. }
  destruct Hc as [(-> & _ & _)|(pw & h1 & ->)]; cbn; splits; auto.
  - apply set_written_length.
  - intros i b' H'. destruct (Hsw _ _ H') as (b & C1 & C2 & C3 & C4 & _). exists b. auto.
  - intros off0 Ho. inv Ho. exists abs. splits; auto.
    intros b' H'. destruct (Hsw _ _ H') as (b & C1 & C2 & C3 & C4 & C5). apply C5. reflexivity.
  - rewrite bump_length. apply set_written_length.
  - intros i b' H'. apply bump_nth in H'. destruct H' as (b1 & B1 & B2 & B3 & B4).
    destruct (Hsw _ _ B1) as (b & C1 & C2 & C3 & C4 & _). exists b. splits; auto; try congruence; try lia.
  - intros off0 Ho. inv Ho. exists abs. splits; auto.
    intros b' H'. apply bump_nth in H'. destruct H' as (b1 & B1 & B2 & B3 & B4).
    destruct (Hsw _ _ B1) as (b & C1 & C2 & C3 & C4 & C5). rewrite B2. apply C5. reflexivity.
Qed.

(** the block that record [r] designates (absolute index [a], as long as it is
    in the list) has been written / is being synced / has been synced up to
    the end of [r]'s location, according to the sync status of [r]'s epoch *)
Definition rcov (p : pbl) (ab : list nat) (r : irec) : Prop :=
  exists a, nth_error ab (r_up r) = Some a /\ a < totalReleased p + length (blocks p) /\
    forall b, totalReleased p <= a -> nth_error (blocks p) (a - totalReleased p) = Some b ->
      (r_off r + r_size r <= b_written b)%Z /\
      forall e, nth_error (epochSeeds p) e = Some (r_seed r) ->
        (e < synchronizingEpochs p -> (r_off r + r_size r <= b_syncing b)%Z) /\
        (e < synchronizedEpochs p -> (r_off r + r_size r <= b_synced b)%Z).

Lemma rcov_ext p p' ab r :
  blocks p' = blocks p -> epochSeeds p' = epochSeeds p ->
  synchronizingEpochs p' = synchronizingEpochs p -> synchronizedEpochs p' = synchronizedEpochs p ->
  totalReleased p' = totalReleased p -> rcov p ab r -> rcov p' ab r.
Proof.
  intros E1 E2 E3 E4 E5 (a & A1 & A2 & A3). exists a. rewrite E1, E2, E3, E4, E5. auto.
Qed.

Lemma rcov_ab_app p ab ab' r : rcov p ab r -> rcov p (ab ++ ab') r.
Proof.
  intros (a & A1 & A2 & A3). exists a. splits; auto. apply nth_error_app_some. exact A1.
Qed.

Lemma rcov_push p l ab r : rcov p ab r -> rcov (set_blocks p (blocks p ++ [mkBinfo l 0 0 0 0])) ab r.
Proof.
  intros (a & A1 & A2 & A3). exists a. cbn. rewrite app_length. cbn. splits; auto; [lia|].
  intros b Ha Hb. rewrite nth_error_app1 in Hb by lia. auto.
Qed.

Lemma rcov_pop p p' ab r : pop_front p = Ok p' -> rcov p ab r -> rcov p' ab r.
Proof.
  intros Hp (a & A1 & A2 & A3).
  destruct (pop_front_spec _ _ Hp) as (b0 & rest & E1 & E2 & _ & _ & _ & _ & E7 & _).
  destruct (E.pop_core _ _ Hp) as (ec & P1 & P2 & P3 & P4).
  exists a. rewrite E2, E7. rewrite E1 in A2. cbn in A2. splits; auto; [lia|].
  intros b Ha Hb.
  assert (Hb0 : nth_error (blocks p) (a - totalReleased p) = Some b).
  { rewrite E1. replace (a - totalReleased p) with (S (a - S (totalReleased p))) by lia. exact Hb. }
  destruct (A3 b ltac:(lia) Hb0) as [W ES]. split; [exact W|].
  intros e He. rewrite P2, nth_error_skipn' in He. destruct (ES _ He) as [C S].
  rewrite P3, P4. split.
  - destruct (Nat.leb_spec (synchronizingEpochs p) ec); intros; [lia|apply C; lia].
  - destruct (Nat.leb_spec (synchronizedEpochs p) ec); intros; [lia|apply S; lia].
Qed.

Lemma rcov_nss f p ab r : rcov p ab r -> rcov (notify_sync_starting f p) ab r.
Proof.
  intros (a & A1 & A2 & A3). exists a. cbn. rewrite map_length. splits; auto.
  intros b Ha Hb. apply nth_error_map_inv in Hb. destruct Hb as (b0 & Hb0 & ->). cbn.
  destruct (A3 b0 Ha Hb0) as [W ES]. split; [exact W|]. intros e He. split; [auto|].
  apply (ES e He).
Qed.

Lemma rcov_nsc p ab r : rcov p ab r -> rcov (notify_sync_completed p) ab r.
Proof.
  intros (a & A1 & A2 & A3). exists a. unfold notify_sync_completed.
  destruct (if synchronizingEpochs p =? length (epochSeeds p) then nc_block (putWakeup p) (heap p)
            else (putWakeup p, heap p)) as [pw h1].
  cbn. rewrite map_length. splits; auto.
  intros b Ha Hb. apply nth_error_map_inv in Hb. destruct Hb as (b0 & Hb0 & ->). cbn.
  destruct (A3 b0 Ha Hb0) as [W ES]. split; [exact W|]. intros e He.
  destruct (ES e He) as [C S]. auto.
Qed.

Lemma rcov_fin tok blk size seed p p' fr ab r : pbl_inv p ->
  put_finalize tok blk size seed p = Ok (p', fr) -> rcov p ab r -> rcov p' ab r.
Proof.
  intros I Hf (a & A1 & A2 & A3).
  destruct (put_finalize_view _ _ _ _ _ _ _ Hf) as (V1 & V2 & V3 & V4 & V5 & V6 & _).
  exists a. rewrite V1, V2, V3, V4. splits; auto.
  intros b' Ha Hb'. destruct (V6 _ _ Hb') as (b & B1 & B2 & B3 & B4).
  destruct (A3 b Ha B1) as [W ES]. split; [lia|]. intros e He. rewrite B3, B4.
  pose proof (i_sync1 _ I). pose proof (i_sync2 _ I).
  destruct V5 as [V5|V5]; rewrite V5 in He; [apply ES; exact He|].
  apply nth_error_snoc_inv in He. destruct He as [He|[-> _]]; [apply ES; exact He|].
  split; intros; lia.
Qed.

Lemma rcov_new p ab r a :
  NoDup (epochSeeds p) -> synchronizedEpochs p <= synchronizingEpochs p ->
  synchronizingEpochs p < length (epochSeeds p) ->
  E.last_seed p = Some (r_seed r) -> nth_error ab (r_up r) = Some a ->
  a < totalReleased p + length (blocks p) ->
  (forall b, totalReleased p <= a -> nth_error (blocks p) (a - totalReleased p) = Some b ->
     (r_off r + r_size r <= b_written b)%Z) ->
  rcov p ab r.
Proof.
  intros Hnd H1 H2 Hl Ha Hlt Hw. exists a. splits; auto.
  intros b Hle Hb. split; [auto|]. intros e He. unfold E.last_seed in Hl.
  assert (e = length (epochSeeds p) - 1) by (eapply NoDup_nth_eq; eauto).
  split; intros; lia.
Qed.

Lemma estep_pbl (P : pbl -> Prop) cfg s t a s' :
  step cfg s (EStep t a) = Some (Ok s') ->
  (forall p p', wsame p p' -> P p -> P p') ->
  (forall f p, P p -> P (notify_sync_starting f p)) ->
  (forall p, P p -> P (notify_sync_completed p)) ->
  P (s_pbl s) -> P (s_pbl s').
Proof.
  intros H Hv Hs Hc H0. destruct t; cbn [step] in H.
  - unfold rstep in H. destruct (s_r s) as [|ch|w].
    + inv H. exact H0.
    + destruct (is_closed _ _); [|discriminate]. inv H. exact H0.
    + destruct (wstep cfg TR w a s) as [[[s1 [w1|]]|]|] eqn:Ew; try discriminate;
        apply wstep_effect in Ew; destruct Ew as (_ & _ & _ & Ew & _); inv H; cbn; eapply Hv; eauto.
  - unfold pstep in H. destruct (s_p s) as [|ch|ch|dl|keep|keep final|keep final|keep final dl|keep w|].
    + inv H. exact H0.
    + destruct (is_closed _ _); inv H; exact H0.
    + destruct (s_cancel s && _); [|destruct (is_closed _ _); [|discriminate]]; inv H; exact H0.
    + destruct (s_cancel s && _); [|destruct (_ && _)%bool; [|discriminate]]; inv H; exact H0.
    + inv H. cbn. apply Hs. exact H0.
    + destruct (a_ok a); inv H; exact H0.
    + destruct (negb keep && negb final); inv H; cbn; auto.
    + destruct (_ <=? _)%N; [|discriminate]. inv H. exact H0.
    + destruct (wstep cfg TP w a s) as [[[s1 [w1|]]|]|] eqn:Ew; try discriminate;
        apply wstep_effect in Ew; destruct Ew as (_ & _ & _ & Ew & _); inv H; cbn; eapply Hv; eauto.
    + discriminate.
Qed.

Lemma estep_rcov cfg s t a s' ab r :
  step cfg s (EStep t a) = Some (Ok s') -> rcov (s_pbl s) ab r -> rcov (s_pbl s') ab r.
Proof.
  intros H. apply (estep_pbl (fun p => rcov p ab r) _ _ _ _ _ H).
  - intros p p' (V1 & V2 & _ & V4 & V5 & V6 & _). apply rcov_ext; auto.
  - intros f p. apply rcov_nss.
  - intros p. apply rcov_nsc.
Qed.

Lemma gps_off p p1 st : get_persistent_state p = Ok (p1, st) ->
  forall q b, nth_error (snd st) q = Some b ->
    exists b0, nth_error (blocks p) q = Some b0 /\ bs_off b = b_synced b0.
Proof.
  unfold get_persistent_state.
  destruct (gps_loop (blocks p) 0 (synchronizedEpochs p) (epochSeeds p)) as [bl|] eqn:E; [|discriminate].
  cbn [obind]. intros H; inv H. cbn [snd]. intros q b Hq.
  destruct (gps_loop_spec _ _ _ _ _ 0 [] E eq_refl q b Hq) as (b0 & Hb0 & _ & Ho & _). eauto.
Qed.

(** every seed of the state designates (via the ghost tables) the position of
    the entry that lists it, counted from absolute block index [kst] *)
Definition stk (sd : list N) (el : list nat) (st : pstate) (kst : nat) : Prop :=
  forall q b s0, nth_error (snd st) q = Some b -> In s0 (bs_seeds b) ->
    exists j, nth_error sd j = Some s0 /\ nth_error el j = Some (kst + q).

(** if the seed of [r] occurs in [st], the entry of [st] for the block that [r]
    designates has a write offset at or above the end of [r]'s location *)
Definition cover (ab : list nat) (st : pstate) (kst : nat) (r : irec) : Prop :=
  forall qq bq, nth_error (snd st) qq = Some bq -> In (r_seed r) (bs_seeds bq) ->
    exists a, nth_error ab (r_up r) = Some a /\
      (kst <= a -> forall bi, nth_error (snd st) (a - kst) = Some bi -> (r_off r + r_size r <= bs_off bi)%Z).

(** a state in flight: covers every record of the log *)
Definition sfl sd el ab (L : list (io irec)) (st : pstate) : Prop :=
  exists kst, stk sd el st kst /\ forall slot r, In (IoIndex slot r) L -> cover ab st kst r.

(** a state written at log position [q]: covers every record written before *)
Definition slg sd el ab (L : list (io irec)) (q : nat) (st : pstate) : Prop :=
  exists kst, stk sd el st kst /\
    forall pos slot r, pos < q -> nth_error L pos = Some (IoIndex slot r) -> cover ab st kst r.

Lemma stk_mono sd el sd' el' st kst : stk sd el st kst -> stk (sd ++ sd') (el ++ el') st kst.
Proof.
  intros H q b s0 Hq Hs. destruct (H q b s0 Hq Hs) as (j & J1 & J2).
  exists j. split; apply nth_error_app_some; assumption.
Qed.

Lemma cover_mono ab ab' st kst r : cover ab st kst r -> cover (ab ++ ab') st kst r.
Proof.
  intros H qq bq Hq Hs. destruct (H qq bq Hq Hs) as (a & A1 & A2).
  exists a. split; [apply nth_error_app_some; exact A1|exact A2].
Qed.

Lemma in_st_seeds (st : pstate) qq bq s : nth_error (snd st) qq = Some bq -> In s (bs_seeds bq) -> In s (E.st_seeds st).
Proof.
  intros Hq Hs. unfold E.st_seeds. apply in_concat. exists (bs_seeds bq). split; [|exact Hs].
  apply in_map. eapply nth_error_In; eauto.
Qed.

Lemma cover_vacuous ab st kst r : ~ In (r_seed r) (E.st_seeds st) -> cover ab st kst r.
Proof. intros Hn qq bq Hq Hs. exfalso. apply Hn. eapply in_st_seeds; eauto. Qed.

Lemma gps_sfl p sd el ab L p1 st :
  ginv p sd el -> get_persistent_state p = Ok (p1, st) ->
  (forall slot r, In (IoIndex slot r) L -> rcov p ab r) ->
  sfl sd el ab L st.
Proof.
  intros [G1 [k [Gk [G2 G3]]] G4 G5] Hg Hlog. exists (totalReleased p). split.
  - intros q b s0 Hq Hs. destruct (gps_spec _ _ _ Hg q b Hq) as [_ H2].
    destruct (H2 s0 Hs) as [e [E1 E2]]. exists (k + e). split.
    + rewrite <- nth_error_skipn', <- G2. exact E1.
    + rewrite <- nth_error_skipn', <- G3, G1. exact E2.
  - intros slot r Hin qq bq Hqq Hs. destruct (Hlog _ _ Hin) as (a & A1 & A2 & A3).
    exists a. split; [exact A1|]. intros Hle bi Hbi.
    destruct (gps_off _ _ _ Hg _ _ Hbi) as (b0 & B1 & B2). rewrite B2.
    destruct (A3 b0 Hle B1) as [W ES].
    pose proof (in_st_seeds _ _ _ _ Hqq Hs) as Hin'.
    apply (E.gps_seeds _ _ _ _ Hg) in Hin'. apply E.in_firstn_nth in Hin'.
    destruct Hin' as (j & J1 & J2). apply (ES j J2). exact J1.
Qed.

Record oinv (c : cst) : Prop := mkOinv {
  oi_log : forall slot r, In (IoIndex slot r) (cs_log c) -> rcov (s_pbl (cs_sys c)) (abss c) r;
  oi_tbl : forall slot r, In (slot, r) (cs_tbl c) -> rcov (s_pbl (cs_sys c)) (abss c) r;
  oi_fl : forall st, E.in_flight (cs_sys c) st -> sfl (cs_seeds c) (cs_elast c) (abss c) (cs_log c) st;
  oi_wr : forall q st h, nth_error (cs_log c) q = Some (IoWriteNew (st, h)) ->
            slg (cs_seeds c) (cs_elast c) (abss c) (cs_log c) q st
}.

Lemma oinv_frame c c' X sd' el' ab' :
  oinv c ->
  cs_log c' = cs_log c ++ X ->
  cs_seeds c' = cs_seeds c ++ sd' -> cs_elast c' = cs_elast c ++ el' -> abss c' = abss c ++ ab' ->
  (forall r, rcov (s_pbl (cs_sys c)) (abss c) r -> rcov (s_pbl (cs_sys c')) (abss c) r) ->
  (forall slot r, In (IoIndex slot r) X ->
     rcov (s_pbl (cs_sys c')) (abss c) r /\
     forall st, E.in_flight (cs_sys c') st -> ~ In (r_seed r) (E.st_seeds st)) ->
  (forall st h, In (IoWriteNew (st, h)) X ->
     (forall slot r, ~ In (IoIndex slot r) X) /\
     sfl (cs_seeds c) (cs_elast c) (abss c) (cs_log c) st) ->
  (forall slot r, In (slot, r) (cs_tbl c') ->
     In (slot, r) (cs_tbl c) \/ rcov (s_pbl (cs_sys c')) (abss c) r) ->
  (forall st, E.in_flight (cs_sys c') st ->
     E.in_flight (cs_sys c) st \/ sfl (cs_seeds c) (cs_elast c) (abss c) (cs_log c) st) ->
  oinv c'.
Proof.
  intros [O1 O2 O3 O4] EL ES EE EA HP HX HW HT HF.
  constructor; rewrite ?EL, ?ES, ?EE, ?EA.
  - intros slot r Hin. apply rcov_ab_app. apply in_app_iff in Hin. destruct Hin as [Hin|Hin].
    + apply HP. eauto.
    + apply (HX _ _ Hin).
  - intros slot r Hin. apply rcov_ab_app. destruct (HT _ _ Hin) as [H|H]; [apply HP; eauto|exact H].
  - intros st Hf.
    assert (Hs : sfl (cs_seeds c) (cs_elast c) (abss c) (cs_log c) st).
    { destruct (HF st Hf) as [H|H]; [auto|exact H]. }
    destruct Hs as (kst & K1 & K2). exists kst. split; [apply stk_mono; exact K1|].
    intros slot r Hin. apply in_app_iff in Hin. destruct Hin as [Hin|Hin].
    + apply cover_mono. eauto.
    + apply cover_vacuous. apply (proj2 (HX _ _ Hin)). exact Hf.
  - intros q st h Hq. destruct (Nat.lt_ge_cases q (length (cs_log c))) as [Hlt|Hge].
    + rewrite nth_error_app1 in Hq by exact Hlt. destruct (O4 _ _ _ Hq) as (kst & K1 & K2).
      exists kst. split; [apply stk_mono; exact K1|]. intros pos slot r Hp Hn.
      rewrite nth_error_app1 in Hn by lia. apply cover_mono. eauto.
    + rewrite nth_error_app2 in Hq by exact Hge. apply nth_error_In in Hq.
      destruct (HW _ _ Hq) as [Hni (kst & K1 & K2)].
      exists kst. split; [apply stk_mono; exact K1|]. intros pos slot r Hp Hn.
      destruct (Nat.lt_ge_cases pos (length (cs_log c))) as [Hl|Hg].
      * rewrite nth_error_app1 in Hn by exact Hl. apply cover_mono. apply nth_error_In in Hn. eauto.
      * rewrite nth_error_app2 in Hn by exact Hg. apply nth_error_In in Hn. exfalso. eapply Hni; eauto.
Qed.

Lemma oinv_simple c c' s' X ab' :
  oinv c -> cs_sys c' = s' -> cs_log c' = cs_log c ++ X ->
  (forall slot r, ~ In (IoIndex slot r) X) -> (forall st h, ~ In (IoWriteNew (st, h)) X) ->
  cs_seeds c' = cs_seeds c -> cs_elast c' = cs_elast c -> cs_tbl c' = cs_tbl c ->
  abss c' = abss c ++ ab' ->
  (forall r, rcov (s_pbl (cs_sys c)) (abss c) r -> rcov (s_pbl s') (abss c) r) ->
  (forall st, E.in_flight s' st ->
     E.in_flight (cs_sys c) st \/ sfl (cs_seeds c) (cs_elast c) (abss c) (cs_log c) st) ->
  oinv c'.
Proof.
  intros O Es EL Hni Hnw ES EE ET EA HP HF.
  eapply (oinv_frame c c' X [] [] ab'); rewrite ?app_nil_r, ?Es; auto.
  - intros slot r Hin. exfalso. eapply Hni; eauto.
  - intros st h Hin. exfalso. eapply Hnw; eauto.
  - intros slot r Hin. left. rewrite <- ET. exact Hin.
Qed.

Lemma do_writes_cov p ab k u ws :
  NoDup (epochSeeds p) -> synchronizedEpochs p <= synchronizingEpochs p ->
  synchronizingEpochs p < length (epochSeeds p) ->
  nth_error ab k = Some (up_abs u) -> up_abs u < totalReleased p + length (blocks p) ->
  (forall b, totalReleased p <= up_abs u -> nth_error (blocks p) (up_abs u - totalReleased p) = Some b ->
     (up_off u + up_size u <= b_written b)%Z) ->
  forall L tbl L' tbl', do_writes p k u ws L tbl = Some (L', tbl') ->
    (forall slot r, In (slot, r) tbl -> rcov p ab r) ->
    exists X, L' = L ++ map (fun e => IoIndex (fst e) (snd e)) X /\ tbl' = tbl ++ X /\
      forall slot r, In (slot, r) X -> rcov p ab r.
Proof.
  intros Hnd H1 H2 Hk Hlt Hw. induction ws as [|w ws IH]; intros L tbl L' tbl' H Htbl; cbn [do_writes] in H.
  - inv H. exists []. cbn. rewrite !app_nil_r. splits; auto. intros ? ? [].
  - destruct w as [slot|from to].
    + destruct (Nat.ltb_spec (up_abs u) (totalReleased p)); [discriminate|].
      destruct (mk_rec p (up_abs u - totalReleased p) (up_key u) (up_off u) (up_size u) k) as [r|] eqn:Em;
        [|discriminate].
      destruct (E.mk_rec_facts _ _ _ _ _ _ _ Em) as (F1 & F2 & F3 & F4 & F5).
      assert (Hr : rcov p ab r).
      { eapply (rcov_new p ab r (up_abs u)); eauto; rewrite ?F2, ?F3, ?F4; auto. }
      destruct (IH _ _ _ _ H) as (X & X1 & X2 & X3).
      { intros s0 r0 Hin. apply in_app_iff in Hin. destruct Hin as [Hin|[Hin|[]]]; [eauto|]. inv Hin. exact Hr. }
      exists ((slot, r) :: X). cbn. rewrite X1, X2, <- !app_assoc. splits; auto.
      intros s0 r0 [Hin|Hin]; [inv Hin; exact Hr|eauto].
    + destruct (slot_get tbl from None) as [r0|] eqn:Es; [|discriminate].
      destruct (live_index p r0) as [i|] eqn:El; [|discriminate].
      destruct (mk_rec p i (r_key r0) (r_off r0) (r_size r0) (r_up r0)) as [r|] eqn:Em; [|discriminate].
      destruct (E.mk_rec_facts _ _ _ _ _ _ _ Em) as (F1 & F2 & F3 & F4 & F5).
      assert (Hr0 : rcov p ab r0).
      { apply slot_get_in in Es. destruct Es as [Es|[s' Hin]]; [discriminate|]. eauto. }
      assert (Hr : rcov p ab r).
      { destruct Hr0 as (a0 & A1 & A2 & A3).
        eapply (rcov_new p ab r a0); eauto; rewrite ?F2, ?F3, ?F4; auto.
        intros b Hle Hb. apply (A3 b Hle Hb). }
      destruct (IH _ _ _ _ H) as (X & X1 & X2 & X3).
      { intros s0 r1 Hin. apply in_app_iff in Hin. destruct Hin as [Hin|[Hin|[]]]; [eauto|]. inv Hin. exact Hr. }
      exists ((to, r) :: X). cbn. rewrite X1, X2, <- !app_assoc. splits; auto.
      intros s0 r1 [Hin|Hin]; [inv Hin; exact Hr|eauto].
Qed.

(** the seed of a record appended by this step is the seed of an open epoch,
    hence it occurs in no state in flight (from the invariant of CrashEpochProofs) *)
Lemma new_record_seed_open c c' X slot r st :
  E.cinv c -> E.cinv c' -> cs_log c' = cs_log c ++ X -> cs_closed_at c' = cs_closed_at c ->
  In (IoIndex slot r) X -> E.in_flight (cs_sys c') st -> ~ In (r_seed r) (E.st_seeds st).
Proof.
  intros [[_ [_ [HL _]]] _] [[HS' [_ [HL' _]]] _] EL EC Hin Hf Hs.
  pose proof (E.si_W _ _ _ _ _ _ HS' _ Hf _ Hs) as H1.
  pose proof (E.si_le1 _ _ _ _ _ _ HS') as Hle.
  apply (E.in_firstn_le _ _ _ _ H1) in Hle.
  apply In_nth_error in Hin. destruct Hin as [pos Hpos].
  destruct (E.li_C _ _ _ _ _ _ _ _ _ _ HL') as [_ C'].
  destruct (E.li_C _ _ _ _ _ _ _ _ _ _ HL) as [C _].
  assert (Hn : nth_error (cs_log c') (length (cs_log c) + pos) = Some (IoIndex slot r)).
  { rewrite EL, nth_error_app2 by lia. replace (_ + pos - _) with pos by lia. exact Hpos. }
  specialize (C' _ _ _ Hn Hle). rewrite EC in C'. lia.
Qed.

Record uinv (c : cst) : Prop := mkUinv {
  ui_len : length (s_uploads (cs_sys c)) = length (cs_ups c);
  ui_size : forall k u tok size, nth_error (cs_ups c) k = Some u ->
      nth_error (s_uploads (cs_sys c)) k = Some (Some (tok, size)) -> size = up_size u;
  ui_cur : forall j x, nth_error (cs_cur c) j = Some x -> (0 <= x)%Z;
  ui_ups : forall k u, nth_error (cs_ups c) k = Some u -> (0 <= up_off u /\ 0 <= up_size u)%Z
}.

Lemma clear_nth_length {A} (l : list (option A)) k : length (clear_nth l k) = length l.
Proof. revert k. induction l as [|x l IH]; intros [|k]; cbn; auto. Qed.

Lemma clear_nth_some {A} (l : list (option A)) k j x :
  nth_error (clear_nth l k) j = Some (Some x) -> nth_error l j = Some (Some x).
Proof.
  revert k j. induction l as [|y l IH]; intros [|k] [|j] H; cbn in *; try discriminate; auto.
  eapply IH; eauto.
Qed.

Lemma step_uploads cfg s e s' : step cfg s e = Some (Ok s') ->
  match e with
  | EPutStart _ sz => exists tok, s_uploads s' = s_uploads s ++ [Some (tok, sz)]
  | EFinalize k _ _ => s_uploads s' = clear_nth (s_uploads s) k
  | _ => s_uploads s' = s_uploads s
  end.
Proof.
  intros H. destruct e; cbn [step] in H.
  - inv H. reflexivity.
  - destruct (blocks (s_pbl s)); [discriminate|]. destruct (pop_front _); [|discriminate]. inv H. reflexivity.
  - destruct (_ || _); [|discriminate]. destruct (put_start _ _) as [tok|]; [|discriminate]. inv H. cbn. eauto.
  - destruct (nth_error (s_uploads s) k) as [[[tok sz]|]|]; try discriminate.
    destruct (put_finalize _ _ _ _ _) as [[p' fr]|]; [|discriminate]. inv H. reflexivity.
  - inv H. reflexivity.
  - inv H. reflexivity.
  - apply (estep_effect _ _ _ _ _ H).
Qed.

Lemma uinv_upd c c' k f :
  uinv c -> same_alloc f -> cs_ups c' = upd_nth (cs_ups c) k f ->
  (s_uploads (cs_sys c') = s_uploads (cs_sys c) \/
   exists k', s_uploads (cs_sys c') = clear_nth (s_uploads (cs_sys c)) k') ->
  (cs_cur c' = cs_cur c \/ cs_cur c' = cs_cur c ++ [0%Z]) -> uinv c'.
Proof.
  intros [U1 U2 U3 U4] Hf Eu Es Ec. constructor.
  - rewrite Eu, upd_nth_length. destruct Es as [->|[k' ->]]; [|rewrite clear_nth_length]; exact U1.
  - intros j y tok size Hy Hs. rewrite Eu in Hy. apply upd_nth_inv in Hy. destruct Hy as (x & Hx & Hy).
    assert (Hs' : nth_error (s_uploads (cs_sys c)) j = Some (Some (tok, size))).
    { destruct Es as [Es|[k' Es]]; rewrite Es in Hs; [exact Hs|eapply clear_nth_some; eauto]. }
    rewrite (U2 _ _ _ _ Hx Hs'). destruct (Hf x) as (_ & _ & F3).
    destruct Hy as [->|[_ ->]]; auto.
  - intros j x Hj. destruct Ec as [Ec|Ec]; rewrite Ec in Hj; [eauto|].
    apply nth_error_snoc_inv in Hj. destruct Hj as [Hj|[_ ->]]; [eauto|lia].
  - intros j y Hy. rewrite Eu in Hy. apply upd_nth_inv in Hy. destruct Hy as (x & Hx & Hy).
    destruct (Hf x) as (_ & F2 & F3). destruct (U4 _ _ Hx).
    destruct Hy as [->|[_ ->]]; [auto|]. rewrite F2, F3. auto.
Qed.

Lemma same_alloc_id : same_alloc (fun u => u).
Proof. intros u. auto. Qed.

Lemma uinv_keep c c' :
  uinv c -> cs_ups c' = cs_ups c -> s_uploads (cs_sys c') = s_uploads (cs_sys c) ->
  (cs_cur c' = cs_cur c \/ cs_cur c' = cs_cur c ++ [0%Z]) -> uinv c'.
Proof.
  intros U E1 E2 E3. eapply (uinv_upd c c' 0 (fun u => u)); eauto using same_alloc_id.
  rewrite upd_nth_id. exact E1.
Qed.

Lemma uinv_step g cfg c e c' : uinv c -> cstep g cfg c e = Some c' -> uinv c'.
Proof.
  intros U H. apply cstep_eff in H. eff_cases H.
  - apply obs_fields in Hobs. destruct Xrest as (Uu & _ & Cu & _). eapply uinv_keep; eauto. apply Hobs.
  - eapply uinv_keep; eauto.
  - destruct Xrest as (Uu & _ & Cu & _). eapply uinv_keep; eauto.
  - destruct Xup as (tok & _ & Xup). destruct U as [U1 U2 U3 U4]. constructor; rewrite ?Hu, ?Xup.
    + rewrite !app_length. cbn. lia.
    + intros k0 u0 tok0 size0 Hu0 Ht. apply nth_error_snoc_inv in Hu0. apply nth_error_snoc_inv in Ht.
      destruct Hu0 as [Hu0|[Hk ->]], Ht as [Ht|[Hk' Ht]]; eauto.
      * apply E.nth_lt in Hu0. lia.
      * apply E.nth_lt in Ht. lia.
      * inv Ht. auto.
    + destruct Xcur as [(_ & _ & _ & _ & ->)|(_ & _ & Eo & ->)]; [exact U3|].
      intros j x Hj. rewrite nth_error_upd_nth in Hj. destruct (Nat.eqb j _); [|eauto].
      destruct (nth_error (cs_cur c) j) as [y|] eqn:Ey; cbn in Hj; [|discriminate]. inv Hj.
      specialize (U3 _ _ Ey). lia.
    + intros k0 u0 Hu0. apply nth_error_snoc_inv in Hu0. destruct Hu0 as [Hu0|[_ ->]]; [eauto|].
      destruct Xcur as [(_ & _ & -> & _)|(_ & _ & Eo & _)]; [lia|]. specialize (U3 _ _ Eo). lia.
  - destruct Xrest as (Uu & _ & Cu & _). eapply uinv_upd; eauto. intros u0. cbn. auto.
  - destruct Xrest as (Uu & _ & Cu & _). eapply uinv_upd; eauto. intros u0. cbn. auto.
  - eapply uinv_upd; eauto. intros u0. cbn. auto.
  - eapply uinv_keep; eauto. rewrite Hsys. apply (estep_effect _ _ _ _ _ Hs).
  - destruct Xrest as (Uu & _ & Cu & _). eapply uinv_keep; eauto.
Qed.

Lemma uinv_init g t0 : uinv (cinit g medium_empty t0).
Proof.
  constructor; cbn.
  - reflexivity.
  - intros k u tok size H. rewrite nth_error_nil' in H. discriminate.
  - intros j x H. rewrite nth_error_nil' in H. discriminate.
  - intros k u H. rewrite nth_error_nil' in H. discriminate.
Qed.

Lemma in_flight_pcs c c' st : same_pcs c c' -> E.in_flight (cs_sys c') st -> E.in_flight (cs_sys c) st.
Proof. intros [Er Ep]. apply E.in_flight_frame; assumption. Qed.

Lemma oinv_step g cfg c e c' :
  cinv g c -> cinv g c' -> E.cinv c -> E.cinv c' -> uinv c -> oinv c ->
  cstep g cfg c e = Some c' -> oinv c'.
Proof.
  intros I I' EI EI' U O H. apply cstep_eff in H.
  assert (Hnil : (forall slot r, ~ In (@IoIndex irec slot r) []) /\ (forall st h, ~ In (@IoWriteNew irec (st, h)) []))
    by (split; intros ? ? []).
  destruct Hnil as [Hni Hnw].
  eff_cases H.
  - (* tick, cancel, push without a block *)
    apply obs_fields in Hobs. destruct Hobs as (E1 & E2 & E3 & E4 & E5 & _ & _ & _ & _ & E10 & E11).
    destruct Xrest as (_ & T & _).
    eapply (oinv_simple c c' _ [] []); eauto; rewrite ?app_nil_r; unfold abss; rewrite ?E1, ?E5; auto.
    intros st Hfl. left. eapply in_flight_pcs; [split|]; eauto.
  - (* push *)
    destruct Hgh as [Esd Eel].
    eapply (oinv_simple c c' _ [] []); eauto; rewrite ?app_nil_r; unfold abss; rewrite ?Hp, ?Hu; auto.
    + intros r. apply rcov_push.
    + intros st Hfl. left. eapply in_flight_pcs; eauto.
  - (* pop *)
    destruct Hgh as [Esd Eel]. destruct Xrest as (_ & T & _).
    eapply (oinv_simple c c' _ [] []); eauto; rewrite ?app_nil_r; unfold abss; rewrite ?Hp, ?Hu; auto.
    + intros r. eapply rcov_pop; eauto.
    + intros st Hfl. left. eapply in_flight_pcs; eauto.
  - (* put start *)
    destruct Hgh as [Esd Eel].
    eapply (oinv_simple c c' _ [] [up_abs u]); eauto; rewrite ?app_nil_r; unfold abss; rewrite ?Hp, ?Hu, ?map_app; auto.
    intros st Hfl. left. eapply in_flight_pcs; eauto.
  - (* data *)
    destruct Hgh as [Esd Eel]. destruct Xrest as (_ & T & _).
    eapply (oinv_simple c c' _ [_] []); eauto; rewrite ?app_nil_r, ?Hsys; auto.
    + intros slot r [Hc|[]]. discriminate.
    + intros st h [Hc|[]]. discriminate.
    + unfold abss. rewrite Hu. apply abss_upd. reflexivity.
  - (* writer done *)
    destruct Hgh as [Esd Eel]. destruct Xrest as (_ & T & _).
    eapply (oinv_simple c c' _ [] []); eauto; rewrite ?app_nil_r, ?Hsys; auto.
    unfold abss. rewrite Hu. apply abss_upd. reflexivity.
  - (* finalize *)
    assert (Ipbl : pbl_inv (s_pbl (cs_sys c))).
    { destruct EI as [[HS _] _]. apply (proj1 (E.si_inv1 _ _ _ _ _ _ HS)). }
    assert (HP : forall r, rcov (s_pbl (cs_sys c)) (abss c) r -> rcov (s_pbl (cs_sys c')) (abss c) r).
    { intros r. rewrite Hp. eapply rcov_fin; eauto. }
    assert (Hab : abss c' = abss c ++ []).
    { rewrite app_nil_r. unfold abss. rewrite Hu. apply abss_upd. reflexivity. }
    assert (HF : forall st, E.in_flight (cs_sys c') st ->
       E.in_flight (cs_sys c) st \/ sfl (cs_seeds c) (cs_elast c) (abss c) (cs_log c) st).
    { intros st Hfl. left. eapply in_flight_pcs; eauto. }
    destruct Xws as [(off & -> & -> & Hw)|(_ & _ & -> & Et)].
    2:{ eapply (oinv_frame c c' [] sd' el' []); eauto.
        - intros slot r Hin. destruct (Hni _ _ Hin).
        - intros st h Hin. destruct (Hnw _ _ Hin).
        - intros slot r Hin. left. rewrite <- Et. exact Hin. }
    (* facts about the finalizer that succeeded *)
    destruct (put_finalize_view _ _ _ _ _ _ _ Hpf) as (V1 & V2 & V3 & V4 & V5 & V6 & V7).
    destruct (V7 off eq_refl) as (abs & T1 & T2 & T3 & T4 & T5).
    assert (Habs : abs = up_abs u).
    { subst tok. pose proof (ci_tok _ _ I) as I5.
      eapply (Forall2_nth _ _ _ k (up_abs u)) in I5; [| |exact Xtok].
      - exact I5.
      - unfold abss. apply map_nth_error. exact Hk. }
    assert (Hoff : off = up_off u) by (destruct ok; [inv T2; reflexivity|discriminate]).
    assert (Hsize : size = up_size u) by (eapply (ui_size _ U); eauto).
    subst abs off size.
    destruct (E.put_finalize_core _ _ _ _ _ _ _ Ipbl Hpf) as (P1 & P2 & P3 & _).
    pose proof (i_sync1 _ Ipbl) as S1. pose proof (i_sync2 _ Ipbl) as S2.
    assert (Hopen : synchronizingEpochs p' < length (epochSeeds p')).
    { rewrite P1. destruct P3 as [[P3 Hne]|P3]; rewrite P3.
      - specialize (Hne _ eq_refl). lia.
      - rewrite app_length. cbn. lia. }
    assert (Hnd : NoDup (epochSeeds p')).
    { destruct (ci_g _ _ I') as [_ [k0 [_ [G2 _]]] _ G5]. rewrite Hp in G2. rewrite G2.
      apply NoDup_skipn. exact G5. }
    destruct (do_writes_cov p' (abss c) k u ws Hnd ltac:(lia) Hopen) with (4 := Hw) as (X & X1 & X2 & X3).
    { unfold abss. apply map_nth_error. exact Hk. }
    { rewrite V1, V4. lia. }
    { intros b0 Hle Hb. rewrite V1 in Hb. apply T5. exact Hb. }
    { intros slot r Hin. rewrite <- Hp. apply HP. apply (oi_tbl _ O _ _ Hin). }
    assert (Hca : cs_closed_at c' = cs_closed_at c).
    { destruct Xsync as (_ & Sg). unfold sync_ghost in Sg. congruence. }
    eapply (oinv_frame c c' _ sd' el' []); eauto.
    + intros slot r Hin. split.
      * apply in_map_iff in Hin. destruct Hin as ([s0 r0] & Hx & Hin). cbn in Hx. injection Hx as Hx1 Hx2. subst s0 r0.
        rewrite Hp. eapply X3; eauto.
      * intros st Hf. eapply (new_record_seed_open c c' _ slot r st EI EI' X1 Hca Hin Hf).
    + intros st h Hin. apply in_map_iff in Hin. destruct Hin as (x & Hx & _). discriminate.
    + intros slot r Hin. rewrite X2 in Hin. apply in_app_iff in Hin. destruct Hin as [Hin|Hin]; [left; exact Hin|right].
      rewrite Hp. eapply X3; eauto.
  - (* thread step *)
    destruct (estep_effect _ _ _ _ _ Hs) as (_ & _ & R & P). destruct Hgh as [Esd Eel].
    assert (Hnx : (forall slot r, ~ In (IoIndex slot r) extra) /\ (forall st h, ~ In (IoWriteNew (st, h)) extra)).
    { rewrite Forall_forall in Hex. split; intros ? ? Hin; exact (Hex _ Hin). }
    eapply (oinv_simple c c' s' extra []); eauto; rewrite ?app_nil_r; try apply Hnx.
    + unfold abss. rewrite Hu. reflexivity.
    + intros r. eapply estep_rcov; eauto.
    + intros st [Hf|[k Hf]].
      * destruct (R _ Hf) as [Hr|[p1 Hg']]; [left; left; exact Hr|right].
        eapply gps_sfl; eauto; [apply (ci_g _ _ I)|apply (oi_log _ O)].
      * destruct (P _ _ Hf) as [Hr|[p1 Hg']]; [left; right; eauto|right].
        eapply gps_sfl; eauto; [apply (ci_g _ _ I)|apply (oi_log _ O)].
  - (* directory operation *)
    destruct Hgh as [Esd Eel]. destruct Xrest as (_ & T & _).
    apply E.writing_in_flight in Hw. pose proof (oi_fl _ O _ Hw) as Hsf.
    eapply (oinv_frame c c' [dir_op (cs_dirpc c) (st, g_hinit g)] [] [] []); rewrite ?app_nil_r, ?Hsys; eauto.
    + unfold abss. rewrite Hu. reflexivity.
    + intros slot r [Hc|[]]. destruct (cs_dirpc c) as [|[|[|[|[|?]]]]]; discriminate.
    + intros st0 h [Hc|[]]. split.
      * intros slot r [Hc'|[]]. rewrite Hc' in Hc. discriminate.
      * destruct (cs_dirpc c) as [|[|[|[|[|?]]]]]; try discriminate. inv Hc. exact Hsf.
    + intros slot r Hin. left. rewrite <- T. exact Hin.
Qed.

Definition allinv (g : geo) (c : cst) : Prop := cinv g c /\ E.cinv c /\ uinv c /\ oinv c.

Lemma allinv_step g cfg c e c' : length (g_locs g) < 65536 ->
  allinv g c -> cstep g cfg c e = Some c' -> allinv g c'.
Proof.
  intros Hg (I & EI & U & O) H.
  pose proof (cstep_cinv _ _ _ _ _ Hg I H) as I'.
  pose proof (E.cstep_inv _ _ _ _ _ EI H) as EI'.
  split; [exact I'|]. split; [exact EI'|]. split; [exact (uinv_step _ _ _ _ _ U H)|].
  exact (oinv_step _ _ _ _ _ I I' EI EI' U O H).
Qed.

Lemma oinv_init g t0 : oinv (cinit g medium_empty t0).
Proof.
  constructor; cbn.
  - intros slot r [].
  - intros slot r [].
  - intros st [Hf|[k Hf]]; discriminate Hf.
  - intros q st h Hq. rewrite nth_error_nil' in Hq. discriminate.
Qed.

Theorem creach_allinv g cfg t0 c : length (g_locs g) < 65536 ->
  creach g cfg medium_empty t0 c -> allinv g c.
Proof.
  intros Hg [tr H]. eapply (crun_inv g cfg (allinv g)); [| |exact H].
  { intros c0 e c1. apply allinv_step. exact Hg. }
  split; [apply cinit_cinv|]. split; [apply E.cinit_inv|]. split; [apply uinv_init|apply oinv_init].
Qed.

Lemma resolve_cover sd el ab r oldest bl alloc i kst bs :
  NoDup sd -> rec_ok sd el ab r -> stk sd el (oldest, bl) kst -> cover ab (oldest, bl) kst r ->
  resolve_ref (fst (pbl_new alloc oldest bl)) 0 (r_epoch r) (r_bfl r) (r_seed r) = Some i ->
  nth_error bl i = Some bs -> (r_off r + r_size r <= bs_off bs)%Z.
Proof.
  intros Hnd (j & e0 & a & R1 & R2 & R3 & R4) Hst Hcov Hres Hbs.
  destruct (resolve_restored _ _ _ _ _ _ _ Hres) as (q & b & Q2 & Q3 & E3 & E4 & _).
  destruct (Hst q b _ Q2 Q3) as (j' & S1 & S2).
  assert (j = j') by (eapply NoDup_nth_eq; [exact Hnd|exact R1|exact S1]). subst j'.
  rewrite R2 in S2. injection S2 as He0. subst e0.
  assert (Ha : a = kst + i) by lia.
  destruct (Hcov q b Q2 Q3) as (a' & A1 & A2). cbn [snd] in *.
  rewrite R3 in A1. injection A1 as <-.
  apply (A2 ltac:(lia)). replace (a - kst) with i by lia. exact Hbs.
Qed.

Theorem restored_offsets_cover : forall g cfg t0 c, length (g_locs g) < 65536 ->
  creach g cfg medium_empty t0 c ->
  forall n ch slot r i, resolves g (crash_of medium_empty c n ch) slot r i ->
  exists b, nth_error (blocks (fst (restart (geom g) (m_state (crash_of medium_empty c n ch))))) i = Some b /\
    (r_off r + r_size r <= b_written b)%Z /\ (0 <= r_off r)%Z /\ (0 <= r_size r)%Z.
Proof.
  intros g cfg t0 c Hg R n ch slot r i Hres.
  destruct (creach_allinv _ _ _ _ Hg R) as (I & EI & U & O).
  (* the block exists *)
  destruct (crash_safe_location_strong _ _ _ _ Hg R _ _ _ _ _ Hres) as (up0 & l & _ & Hbl & _).
  unfold block_loc in Hbl.
  destruct (nth_error (blocks (fst (restart (geom g) (m_state (crash_of medium_empty c n ch))))) i)
    as [b|] eqn:Eb; [|discriminate].
  exists b. split; [reflexivity|].
  (* signs *)
  destruct (E.crash_safe_durable _ _ _ _ R _ _ _ _ _ Hres) as (up & P1 & _ & P3 & P4 & _).
  destruct (ui_ups _ U _ _ P1) as [Z1 Z2]. rewrite P3 in Z1. rewrite P4 in Z2.
  split; [|split; assumption].
  (* the record is a record write of the prefix *)
  destruct Hres as [H1 H2]. unfold crash_of in *.
  rewrite E.crash_medium_index in H1. cbn [m_index medium_empty app] in H1.
  apply E.slot_get_in in H1. destruct H1 as [H1|[slot' H1]]; [discriminate|].
  apply E.select_incl in H1. apply E.index_writes_in in H1. apply In_nth_error in H1. destruct H1 as [pos Hpos].
  apply E.nth_firstn in Hpos. destruct Hpos as [Hpn Hpos].
  assert (Hrec : rec_ok (cs_seeds c) (cs_elast c) (abss c) r).
  { pose proof (ci_log _ _ I) as HL. rewrite Forall_forall in HL.
    apply (HL _ (nth_error_In _ _ Hpos)). }
  (* the state file is the payload of a state write of the prefix *)
  destruct (restart_written _ _ _ _ Eb) as (oldest & bl & h & bs & Est & Ebs & Ew & _).
  rewrite Ew. rewrite Est in H2. cbn [restart] in H2.
  pose proof (E.crash_medium_state _ _ _ Est) as Hw. destruct Hw as [Hw|Hw].
  { inv Hw. rewrite nth_error_nil' in Ebs. discriminate. }
  apply In_nth_error in Hw. destruct Hw as [q Hq]. apply E.nth_firstn in Hq. destruct Hq as [Hqn Hq].
  (* the record write precedes the state write *)
  assert (Hseed : In (r_seed r) (concat (map bs_seeds (snd (oldest, bl))))).
  { apply E.resolve_ref_seed in H2. apply E.pbl_new_seeds in H2. exact H2. }
  pose proof (E.seed_durable_after_sync _ _ _ _ R _ _ _ _ Hq Hseed _ _ _ Hpos eq_refl) as Hd.
  pose proof (E.durable_le_length (firstn q (cs_log c))) as Hdl.
  rewrite firstn_length in Hdl.
  destruct (oi_wr _ O _ _ _ Hq) as (kst & K1 & K2).
  eapply resolve_cover; eauto.
  - apply (gi_nodup _ _ _ (ci_g _ _ I)).
  - eapply K2; eauto. lia.
Qed.

(** [restored_offsets_cover] on the first life + [no_overwrite_after_restart_block] on a second life
    started on the crashed media *)
Theorem committed_space_not_overwritten_in_restored_block :
  forall g cfg t0 c n ch cfg2 t02 c2,
  length (g_locs g) < 65536 -> (0 < g_sector g)%Z ->
  creach g cfg medium_empty t0 c ->
  creach g cfg2 (crash_of medium_empty c n ch) t02 c2 ->
  forall slot r i, resolves g (crash_of medium_empty c n ch) slot r i ->
  forall q k l lo hi up, nth_error (cs_log c2) q = Some (IoData k l lo hi) ->
    nth_error (cs_ups c2) k = Some up -> up_abs up = i ->
    (r_off r + r_size r <= lo)%Z.
Proof.
  intros g cfg t0 c n ch cfg2 t02 c2 Hg Hs R1 R2 slot r i Hres q k l lo hi up Hq Hup Hi.
  destruct (restored_offsets_cover _ _ _ _ Hg R1 _ _ _ _ _ Hres) as (b & B1 & B2 & _).
  pose proof (no_overwrite_after_restart_block _ _ _ _ _ Hs R2 _ _ _ _ _ Hq _ _ _ Hup Hi B1). lia.
Qed.

Fixpoint data_of (k : nat) (L : list (io irec)) : list (loc * Z * Z) :=
  match L with
  | [] => []
  | IoData u l lo hi :: t => if Nat.eqb u k then (l, lo, hi) :: data_of k t else data_of k t
  | _ :: t => data_of k t
  end.

(** consecutive half-open intervals from [x] to [y], all on the region [ol] *)
Fixpoint tiles (ol : option loc) (x : Z) (ws : list (loc * Z * Z)) (y : Z) : Prop :=
  match ws with
  | [] => x = y
  | (l, lo, hi) :: t => Some l = ol /\ lo = x /\ (lo < hi)%Z /\ tiles ol hi t y
  end.

Lemma data_of_app k L L' : data_of k (L ++ L') = data_of k L ++ data_of k L'.
Proof.
  induction L as [|e L IH]; cbn; [reflexivity|]. destruct e; auto.
  destruct (Nat.eqb u k); cbn; rewrite IH; reflexivity.
Qed.

Lemma data_of_none k L : (forall l lo hi, ~ In (IoData k l lo hi) L) -> data_of k L = [].
Proof.
  induction L as [|e L IH]; intros H; cbn; [reflexivity|].
  assert (IH' : data_of k L = []) by (apply IH; intros l lo hi Hin; eapply H; right; exact Hin).
  destruct e; auto. destruct (Nat.eqb_spec u k); [|exact IH'].
  subst u. exfalso. eapply H. left. reflexivity.
Qed.

Lemma in_data_of k L l lo hi : In (l, lo, hi) (data_of k L) -> In (IoData k l lo hi) L.
Proof.
  induction L as [|e L IH]; cbn; [auto|]. destruct e; auto.
  destruct (Nat.eqb_spec u k); [|auto]. subst u. intros [H|H]; [inv H; auto|auto].
Qed.

Lemma tiles_snoc ol x ws y l y' : tiles ol x ws y -> Some l = ol -> (y < y')%Z ->
  tiles ol x (ws ++ [(l, y, y')]) y'.
Proof.
  revert x. induction ws as [|[[l0 lo] hi] ws IH]; intros x H Hl Hy; cbn in *.
  - subst y. auto.
  - destruct H as (H1 & H2 & H3 & H4). splits; auto.
Qed.

Lemma tiles_loc_app locs t a x ws y :
  tiles (nth_error locs a) x ws y -> tiles (nth_error (locs ++ t) a) x ws y.
Proof.
  revert x. induction ws as [|[[l0 lo] hi] ws IH]; intros x H; cbn in *; [exact H|].
  destruct H as (H1 & H2 & H3 & H4). splits; auto.
  symmetry. apply nth_error_app_some. symmetry. exact H1.
Qed.

Lemma tiles_cover ol x ws y : tiles ol x ws y -> forall z, (x <= z < y)%Z ->
  exists l lo hi, In (l, lo, hi) ws /\ Some l = ol /\ (lo <= z < hi)%Z.
Proof.
  revert x. induction ws as [|[[l0 lo] hi] ws IH]; intros x H z Hz; cbn in *; [lia|].
  destruct H as (H1 & H2 & H3 & H4). destruct (Z.lt_ge_cases z hi).
  - exists l0, lo, hi. splits; auto; lia.
  - destruct (IH _ H4 z ltac:(lia)) as (l & lo' & hi' & A & B & C). exists l, lo', hi'. auto.
Qed.

Lemma tiles_le ol x ws y : tiles ol x ws y -> (x <= y)%Z.
Proof.
  revert x. induction ws as [|[[l0 lo] hi] ws IH]; intros x H; cbn in *; [lia|].
  destruct H as (H1 & H2 & H3 & H4). apply IH in H4. lia.
Qed.

Definition keeps (f : upinfo -> upinfo) : Prop :=
  forall u, up_abs (f u) = up_abs u /\ up_off (f u) = up_off u /\ up_issued (f u) = up_issued u.

Definition quiet_step (c c' : cst) : Prop :=
  (exists X, cs_log c' = cs_log c ++ X /\ forall k l lo hi, ~ In (IoData k l lo hi) X) /\
  (cs_locs c' = cs_locs c \/ exists l, cs_locs c' = cs_locs c ++ [l]) /\
  ((exists k f, keeps f /\ cs_ups c' = upd_nth (cs_ups c) k f) \/
   (exists x, up_issued x = 0%Z /\ cs_ups c' = cs_ups c ++ [x])).

Definition data_step (c c' : cst) : Prop :=
  exists k u l n, nth_error (cs_ups c) k = Some u /\ nth_error (cs_locs c) (up_abs u) = Some l /\ (0 < n)%Z /\
    cs_log c' = cs_log c ++ [IoData k l (up_off u + up_issued u) (up_off u + up_issued u + n)]%Z /\
    cs_locs c' = cs_locs c /\
    cs_ups c' = upd_nth (cs_ups c) k (fun u => mkUp (up_key u) (up_abs u) (up_off u) (up_size u)
                                                   (up_issued u + n)%Z (up_state u)).

Lemma quiet_same c c' X :
  cs_log c' = cs_log c ++ X -> (forall k l lo hi, ~ In (IoData k l lo hi) X) ->
  cs_locs c' = cs_locs c -> cs_ups c' = cs_ups c -> quiet_step c c'.
Proof.
  intros E1 H E2 E3. split; [eauto|]. split; [auto|]. left. exists 0, (fun u => u).
  split; [intros u; auto|]. rewrite upd_nth_id. exact E3.
Qed.

Lemma quiet_upd c c' X k f :
  cs_log c' = cs_log c ++ X -> (forall k l lo hi, ~ In (IoData k l lo hi) X) ->
  cs_locs c' = cs_locs c -> keeps f -> cs_ups c' = upd_nth (cs_ups c) k f -> quiet_step c c'.
Proof. intros E1 H E2 Hf E3. split; [eauto|]. split; [auto|]. left. eauto. Qed.

Lemma cstep_shape g cfg c e c' : cstep g cfg c e = Some c' -> quiet_step c c' \/ data_step c c'.
Proof.
  intros H. apply cstep_eff in H.
  assert (Hnd : forall X, Forall nodata X -> forall k l lo hi, ~ In (@IoData irec k l lo hi) X).
  { intros X HX k l lo hi Hin. rewrite Forall_forall in HX. exact (HX _ Hin). }
  eff_cases H.
  - left. apply obs_fields in Hobs. destruct Hobs as (_ & _ & _ & E4 & E5 & E6 & _).
    eapply (quiet_same _ _ []); rewrite ?app_nil_r; auto.
  - left. split; [exists []; rewrite app_nil_r; auto|]. split; [right; eexists; exact Hlc|].
    left. exists 0, (fun u => u). split; [intros u; auto|]. rewrite upd_nth_id. exact Hu.
  - left. eapply (quiet_same _ _ []); rewrite ?app_nil_r; auto. apply Hal.
  - left. split; [exists []; rewrite app_nil_r; auto|]. split; [left; apply Hal|]. right. eauto.
  - right. exists k, u, l, n. splits; auto. apply Hal.
  - left. eapply (quiet_upd _ _ [] k (set_state (UpDone ok))); rewrite ?app_nil_r; auto. intros u0. cbn. auto.
  - left. eapply (quiet_upd _ _ extra k (set_state (UpFin b))); eauto; [apply Hnd, isindex_nodata, Hex|apply Hal|].
    intros u0. cbn. auto.
  - left. eapply (quiet_same _ _ extra); eauto. apply Hnd, issync_nodata, Hex.
  - left. eapply (quiet_same _ _ [_]); eauto; [|apply Hal]. apply Hnd. constructor; [apply dir_op_nodata|constructor].
Qed.

Record tinv (c : cst) : Prop := mkTinv {
  ti_tiles : forall k up, nth_error (cs_ups c) k = Some up ->
     tiles (nth_error (cs_locs c) (up_abs up)) (up_off up) (data_of k (cs_log c)) (up_off up + up_issued up);
  ti_dom : forall k l lo hi, In (IoData k l lo hi) (cs_log c) -> k < length (cs_ups c)
}.

Lemma tinv_step g cfg c e c' : tinv c -> cstep g cfg c e = Some c' -> tinv c'.
Proof.
  intros [T1 T2] H. destruct (cstep_shape _ _ _ _ _ H) as [Q|D].
  - destruct Q as ((X & EL & HX) & Hlocs & Hups).
    assert (Hd : forall k, data_of k (cs_log c') = data_of k (cs_log c)).
    { intros k. rewrite EL, data_of_app, (data_of_none k X), app_nil_r; [reflexivity|]. intros l lo hi. apply HX. }
    assert (Hl : forall a x ws y, tiles (nth_error (cs_locs c) a) x ws y -> tiles (nth_error (cs_locs c') a) x ws y).
    { intros a x ws y Ht. destruct Hlocs as [->|[l ->]]; [exact Ht|apply tiles_loc_app; exact Ht]. }
    assert (Hdom : forall k l lo hi, In (IoData k l lo hi) (cs_log c') -> k < length (cs_ups c)).
    { intros k l lo hi Hin. rewrite EL in Hin. apply in_app_iff in Hin.
      destruct Hin as [Hin|Hin]; [eauto|exfalso; eapply HX; eauto]. }
    destruct Hups as [(k0 & f & Hf & EU)|(x & Hx & EU)]; constructor.
    + intros k up Hup. rewrite EU in Hup. apply upd_nth_inv in Hup. destruct Hup as (u & Hu & Hy).
      rewrite Hd. apply Hl. specialize (T1 _ _ Hu). destruct (Hf u) as (F1 & F2 & F3).
      destruct Hy as [->|[_ ->]]; [exact T1|]. rewrite F1, F2, F3. exact T1.
    + intros k l lo hi Hin. rewrite EU, upd_nth_length. eauto.
    + intros k up Hup. rewrite EU in Hup. apply nth_error_snoc_inv in Hup. rewrite Hd.
      destruct Hup as [Hup|[-> ->]]; [apply Hl; eauto|].
      rewrite (data_of_none (length (cs_ups c))); [cbn; lia|].
      intros l lo hi Hin. apply T2 in Hin. lia.
    + intros k l lo hi Hin. rewrite EU, app_length. apply Hdom in Hin. lia.
  - destruct D as (k & u & l & n & Eu & El & Hn & EL & ELoc & EU). constructor.
    + intros k' up Hup. rewrite EU in Hup. rewrite nth_error_upd_nth in Hup. rewrite ELoc, EL, data_of_app. cbn.
      destruct (Nat.eqb_spec k' k) as [->|Hne].
      * rewrite Eu in Hup. cbn in Hup. inv Hup. cbn. rewrite Nat.eqb_refl.
        replace (up_off u + (up_issued u + n))%Z with (up_off u + up_issued u + n)%Z by lia.
        apply tiles_snoc; [apply T1; exact Eu|congruence|lia].
      * destruct (Nat.eqb_spec k k'); [congruence|]. rewrite app_nil_r. apply T1. exact Hup.
    + intros k' l' lo hi Hin. rewrite EU, upd_nth_length. rewrite EL in Hin. apply in_snoc in Hin.
      destruct Hin as [Hin|Hin]; [eauto|]. inv Hin. apply E.nth_lt in Eu. exact Eu.
Qed.

Lemma tinv_init g base t0 : tinv (cinit g base t0).
Proof.
  constructor; cbn.
  - intros k up H. rewrite nth_error_nil' in H. discriminate.
  - intros k l lo hi [].
Qed.

Lemma creach_tinv g cfg base t0 c : creach g cfg base t0 c -> tinv c.
Proof. intros [tr H]. eapply (crun_inv g cfg tinv); [apply tinv_step|apply tinv_init|exact H]. Qed.

Lemma issued_bytes_written g cfg base t0 c : creach g cfg base t0 c ->
  forall k u z, nth_error (cs_ups c) k = Some u -> (up_off u <= z < up_off u + up_issued u)%Z ->
    exists p l lo hi, nth_error (cs_log c) p = Some (IoData k l lo hi) /\ (lo <= z < hi)%Z /\
      nth_error (cs_locs c) (up_abs u) = Some l.
Proof.
  intros R k u z Hk Hz. pose proof (ti_tiles _ (creach_tinv _ _ _ _ _ R) _ _ Hk) as T.
  destruct (tiles_cover _ _ _ _ T z Hz) as (l & lo & hi & A & B & C).
  apply in_data_of in A. apply In_nth_error in A. destruct A as [p Hp]. exists p, l, lo, hi. auto.
Qed.

(** The data writes of upload [k], in log order, are consecutive intervals
    from its offset to its offset + the bytes issued so far, all on the region
    of its block; once everything was issued, every byte of the allocation is
    covered by one of them. *)
Theorem upload_writes_tile : forall g cfg base t0 c, creach g cfg base t0 c ->
  forall k up, nth_error (cs_ups c) k = Some up ->
    tiles (nth_error (cs_locs c) (up_abs up)) (up_off up) (data_of k (cs_log c)) (up_off up + up_issued up) /\
    (up_issued up = up_size up -> forall z, (up_off up <= z < up_off up + up_size up)%Z ->
       exists l lo hi, In (IoData k l lo hi) (cs_log c) /\
         nth_error (cs_locs c) (up_abs up) = Some l /\ (lo <= z < hi)%Z).
Proof.
  intros g cfg base t0 c R k up Hup. pose proof (ti_tiles _ (creach_tinv _ _ _ _ _ R) _ _ Hup) as T.
  split; [exact T|]. intros Hi z Hz. rewrite <- Hi in Hz.
  destruct (issued_bytes_written _ _ _ _ _ R _ _ z Hup Hz) as (p & l & lo & hi & A & B & C).
  exists l, lo, hi. split; [eapply nth_error_In; exact A|auto].
Qed.

Print Assumptions no_overwrite_after_restart_block.
Print Assumptions restored_offsets_cover.
Print Assumptions committed_space_not_overwritten_in_restored_block.
Print Assumptions upload_writes_tile.
