(** Persist/CrashRepeatRec.v — what the index records of a life on ANY base
    medium designate (the REAL run; the structural facts come from the shadow
    run of Persist/CrashRepeatShadow.v, the seed / durability facts from
    Persist/CrashEpochProofs.v).

    Upload tags are per life, so a record is described tag-free by the
    absolute block index [a] it designates ([DES]: seed table arithmetic) and
    by the offsets of that block ([O.rcov] with the one-entry allocation table
    [fab r a]); it is then either NATIVE (its tag is a completed upload of this
    life allocated in block [a] with the record's key / offset / size, and —
    for a log entry — all data of that upload precedes it) or INHERITED
    ([a] is a block restored at the start of the life and [Back r a] holds: an
    abstract statement about the base medium that depends only on key / offset
    / size).  One disjunction per record, shared by all conclusions.
    State files in flight / written cover every record of the log and every
    record of the base index ([SCOV]).  Stdlib only; no axioms. *)
From Coq Require Import List NArith ZArith Bool Arith Lia Permutation.
From BBS Require Import Persist.PBL Persist.PBLProofs Persist.Syncer Persist.SyncerProofs
                        Persist.Crash Persist.CrashLts.
From BBS Require Import Persist.CrashReuseProofs.
From BBS Require Persist.CrashOffsetsProofs.
From BBS Require Import Persist.CrashEpochProofs Persist.CrashRepeatSim Persist.CrashRepeatShadow.
Import ListNotations.

Module O := BBS.Persist.CrashOffsetsProofs.

Local Notation log := (list (io irec)).

Definition fab (r : irec) (a : nat) : list nat := repeat a (S (r_up r)).

Lemma fab_nth r a : nth_error (fab r a) (r_up r) = Some a.
Proof. unfold fab. apply nth_error_repeat. lia. Qed.

Lemma fab_up r r0 a : r_up r = r_up r0 -> fab r a = fab r0 a.
Proof. unfold fab. intros ->. reflexivity. Qed.

Definition DES (sd : list N) (el : list nat) (r : irec) (a : nat) : Prop := A.rec_ok sd el (fab r a) r.

Lemma DES_iff sd el r a : DES sd el r a <->
  exists j e, nth_error sd j = Some (r_seed r) /\ nth_error el j = Some e /\
    (Z.of_nat e - Z.of_N (r_bfl r) = Z.of_nat a)%Z.
Proof.
  split.
  - intros (j & e & a' & H1 & H2 & H3 & H4). rewrite fab_nth in H3. inv H3. eauto.
  - intros (j & e & H1 & H2 & H3). exists j, e, a. rewrite fab_nth. auto.
Qed.

Lemma DES_fun sd el r a a' : NoDup sd -> DES sd el r a -> DES sd el r a' -> a = a'.
Proof.
  intros Hnd H1 H2. apply DES_iff in H1, H2.
  destruct H1 as (j & e & A1 & A2 & A3). destruct H2 as (j' & e' & B1 & B2 & B3).
  assert (j = j') by (eapply A.NoDup_nth_eq; eauto). subst j'. rewrite A2 in B2. inv B2. lia.
Qed.

Lemma DES_mono sd el sd' el' r a : DES sd el r a -> DES (sd ++ sd') (el ++ el') r a.
Proof.
  intros H. pose proof (A.rec_ok_mono sd el (fab r a) sd' el' [] r H) as H'. rewrite app_nil_r in H'. exact H'.
Qed.

Lemma DES_seed sd el r a : DES sd el r a -> In (r_seed r) sd.
Proof. intros H. apply DES_iff in H. destruct H as (j & e & H1 & _). eapply nth_error_In; eauto. Qed.

(** seed resolution on a restarted list (what BlockReferenceToBlockIndex + the seed check accept
    is a special case: [resolve_sres]) *)
Definition sres (p : pbl) (r : irec) (i : nat) : Prop :=
  exists j e, nth_error (epochSeeds p) j = Some (r_seed r) /\ nth_error (epochLast p) j = Some e /\
    (Z.of_nat e - Z.of_N (r_bfl r) = Z.of_nat i)%Z.

Lemma sres_DES p r i : sres p r i <-> DES (epochSeeds p) (epochLast p) r i.
Proof. symmetry. apply DES_iff. Qed.

Lemma resolve_ref_spec p ep bfl seed i : resolve_ref p 0 ep bfl seed = Some i ->
  exists e la, nth_error (epochLast p) e = Some la /\ nth_error (epochSeeds p) e = Some seed /\
    (Z.of_N bfl <= Z.of_nat la - Z.of_nat (totalReleased p))%Z /\
    i = Z.to_nat (Z.of_nat la - Z.of_nat (totalReleased p) - Z.of_N bfl).
Proof.
  unfold resolve_ref. intros H. destruct (ref_to_index ep bfl p) as [[[i' sd]|]|] eqn:Er; try discriminate.
  cbn in H. destruct (N.eqb_spec sd seed) as [->|]; [|discriminate]. inv H. exact (A.ref_to_index_spec _ _ _ _ _ Er).
Qed.

Lemma resolve_sres p r i : totalReleased p = 0 ->
  resolve_ref p 0 (r_epoch r) (r_bfl r) (r_seed r) = Some i -> sres p r i.
Proof.
  intros Htr H. destruct (resolve_ref_spec _ _ _ _ _ H) as (e & la & E1 & E2 & E3 & E4).
  exists e, la. rewrite Htr in *. splits; auto. lia.
Qed.

(** a seed-resolving record, seen through a state file that lists a window of the block list *)
Lemma sres_state sd el lc r oldest bl alloc i kst :
  st_at sd el lc kst (oldest, bl) -> sres (fst (pbl_new alloc oldest bl)) r i ->
  DES sd el r (kst + i) /\
  exists q bq bi x, nth_error bl q = Some bq /\ In (r_seed r) (bs_seeds bq) /\
    nth_error bl i = Some bi /\ nth_error (blocks (fst (pbl_new alloc oldest bl))) i = Some x /\
    b_loc x = bs_loc bi /\ b_written x = bs_off bi /\ nth_error lc (kst + i) = Some (bs_loc bi).
Proof.
  intros Hst (j' & e' & S1 & S2 & S3).
  destruct (A.pbl_new_fields alloc oldest bl) as [Htr Hf].
  destruct (restore_blocks alloc bl 0) as [[bl' seeds'] lasts'] eqn:Er.
  destruct (Hf _ _ _ eq_refl) as (F1 & F2 & F3). clear Hf.
  rewrite F2 in S1. rewrite F3 in S2.
  destruct (A.restore_spec _ _ _ _ _ _ Er _ _ S1) as (q & b & Q1 & Q2 & Q3 & Q4).
  rewrite S2 in Q1. injection Q1 as Q1. cbn [plus] in Q1. subst e'.
  destruct (Hst q b Q2) as [L1 L2]. destruct (L2 _ Q3) as (j & J1 & J2). cbn [snd] in *.
  split.
  - apply DES_iff. exists j, (kst + q). splits; auto. lia.
  - assert (Hi : i <= q) by lia.
    destruct (nth_error bl' q) as [xq|] eqn:Eq; [|discriminate].
    assert (i < length bl') by (assert (q < length bl') by (apply nth_error_Some; congruence); lia).
    destruct (nth_error bl' i) as [xi|] eqn:Exi; [|apply nth_error_None in Exi; lia].
    destruct (A.restore_blocks_written _ _ _ _ _ _ Er _ _ Exi) as (bi & B1 & B2 & B3).
    destruct (Hst i bi B1) as [L3 _]. cbn [snd] in *.
    exists q, b, bi, xi. rewrite F1. splits; auto.
Qed.

(** the size a finalizer passes is the size of its upload *)

Definition usz (c : cst) : Prop :=
  length (s_uploads (cs_sys c)) = length (cs_ups c) /\
  forall k u tok size, nth_error (cs_ups c) k = Some u ->
    nth_error (s_uploads (cs_sys c)) k = Some (Some (tok, size)) -> size = up_size u.

Lemma usz_upd c c' k f :
  usz c -> (forall u, up_size (f u) = up_size u) -> cs_ups c' = upd_nth (cs_ups c) k f ->
  (s_uploads (cs_sys c') = s_uploads (cs_sys c) \/
   exists k', s_uploads (cs_sys c') = clear_nth (s_uploads (cs_sys c)) k') -> usz c'.
Proof.
  intros [U1 U2] Hf Eu Es. split.
  - rewrite Eu, A.upd_nth_length. destruct Es as [->|[k' ->]]; [|rewrite O.clear_nth_length]; exact U1.
  - intros j y tok size Hy Hs. rewrite Eu in Hy. apply A.upd_nth_inv in Hy. destruct Hy as (x & Hx & Hy).
    assert (Hs' : nth_error (s_uploads (cs_sys c)) j = Some (Some (tok, size))).
    { destruct Es as [Es|[k' Es]]; rewrite Es in Hs; [exact Hs|eapply O.clear_nth_some; eauto]. }
    rewrite (U2 _ _ _ _ Hx Hs'). destruct Hy as [->|[_ ->]]; auto.
Qed.

Lemma usz_keep c c' : usz c -> cs_ups c' = cs_ups c -> s_uploads (cs_sys c') = s_uploads (cs_sys c) -> usz c'.
Proof.
  intros U E1 E2. eapply (usz_upd c c' 0 (fun u => u)); eauto. rewrite A.upd_nth_id. exact E1.
Qed.

Lemma usz_step g cfg c e c' : usz c -> cstep g cfg c e = Some c' -> usz c'.
Proof.
  intros U H. apply cstep_eff in H. eff_cases H.
  - apply obs_fields in Hobs. destruct Xrest as (Uu & _). eapply usz_keep; eauto. apply Hobs.
  - eapply usz_keep; eauto.
  - destruct Xrest as (Uu & _). eapply usz_keep; eauto.
  - destruct Xup as (tok & _ & Xup). destruct U as [U1 U2]. split; rewrite Hu, Xup.
    + rewrite !app_length. cbn. lia.
    + intros k0 u0 tok0 size0 Hu0 Ht. apply A.nth_error_snoc_inv in Hu0. apply A.nth_error_snoc_inv in Ht.
      destruct Hu0 as [Hu0|[Hk ->]], Ht as [Ht|[Hk' Ht]]; eauto.
      * apply E.nth_lt in Hu0. lia.
      * apply E.nth_lt in Ht. lia.
      * inv Ht. auto.
  - destruct Xrest as (Uu & _). eapply usz_upd; eauto. intros u0. reflexivity.
  - destruct Xrest as (Uu & _). eapply usz_upd; eauto. intros u0. reflexivity.
  - eapply usz_upd; eauto. intros u0. reflexivity.
  - eapply usz_keep; eauto. rewrite Hsys. apply (A.estep_effect _ _ _ _ _ Hs).
  - destruct Xrest as (Uu & _). eapply usz_keep; eauto.
Qed.

Lemma usz_init g base t0 : usz (cinit g base t0).
Proof. split; [reflexivity|]. intros k u tok size H. destruct k; discriminate. Qed.

Lemma crun_usz g cfg tr : forall c c', usz c -> crun g cfg c tr = Some c' -> usz c'.
Proof.
  induction tr as [|e tr IH]; intros c c' U H; cbn in H; [inv H; exact U|].
  destruct (cstep g cfg c e) as [c1|] eqn:Es; [|discriminate]. eapply IH; [|exact H]. eapply usz_step; eauto.
Qed.

Lemma gps_cover p sd el p1 st :
  A.ginv p sd el -> get_persistent_state p = Ok (p1, st) ->
  O.stk sd el st (totalReleased p) /\
  forall ab r, O.rcov p ab r -> O.cover ab st (totalReleased p) r.
Proof.
  intros [G1 [k [Gk [G2 G3]]] G4 G5] Hg. split.
  - intros q b s0 Hq Hs. destruct (A.gps_spec _ _ _ Hg q b Hq) as [_ H2].
    destruct (H2 s0 Hs) as [e [E1 E2]]. exists (k + e). split.
    + rewrite <- A.nth_error_skipn', <- G2. exact E1.
    + rewrite <- A.nth_error_skipn', <- G3, G1. exact E2.
  - intros ab r (a & A1 & A2 & A3) qq bq Hqq Hs.
    exists a. split; [exact A1|]. intros Hle bi Hbi.
    destruct (O.gps_off _ _ _ Hg _ _ Hbi) as (b0 & B1 & B2). rewrite B2.
    destruct (A3 b0 Hle B1) as [W ES].
    pose proof (O.in_st_seeds _ _ _ _ Hqq Hs) as Hin'.
    apply (E.gps_seeds _ _ _ _ Hg) in Hin'. apply E.in_firstn_nth in Hin'.
    destruct Hin' as (j & J1 & J2). apply (ES j J2). exact J1.
Qed.

Lemma DES_anti sd el sd' el' r a : length el = length sd -> (forall x, In x sd' -> r_seed r <> x) ->
  DES (sd ++ sd') (el ++ el') r a -> DES sd el r a.
Proof.
  intros Hlen Hn H. apply DES_iff in H. destruct H as (j & e & H1 & H2 & H3). apply DES_iff.
  destruct (Nat.lt_ge_cases j (length sd)) as [Hlt|Hge].
  - rewrite nth_error_app1 in H1 by exact Hlt. rewrite nth_error_app1 in H2 by lia. eauto.
  - rewrite nth_error_app2 in H1 by exact Hge. apply nth_error_In in H1. exfalso. eapply Hn; eauto.
Qed.

Lemma NoDup_pointwise {X} (l l' : list X) : NoDup l ->
  (forall i x, nth_error l' i = Some x -> nth_error l i = Some x) -> NoDup l'.
Proof.
  intros Hn H. apply NoDup_nth_error. intros i j Hi Hij.
  destruct (nth_error l' i) as [x|] eqn:Ei; [|apply nth_error_None in Ei; lia].
  symmetry in Hij. pose proof (H _ _ Ei) as A1. pose proof (H _ _ Hij) as A2.
  eapply (proj1 (NoDup_nth_error l) Hn); [apply nth_error_Some; congruence|congruence].
Qed.

Section Rec.
  Variable nb : nat.
  Variable Back : irec -> nat -> Prop.
  Hypothesis Back_same : forall r r0 a, r_key r = r_key r0 -> r_off r = r_off r0 -> r_size r = r_size r0 ->
    Back r0 a -> Back r a.
  Variable tb0 : list (nat * irec).

  Definition NATU (ups : list upinfo) (r : irec) (a : nat) : Prop :=
    exists up, nth_error ups (r_up r) = Some up /\ up_abs up = a /\ up_key up = r_key r /\ up_off up = r_off r /\
      up_size up = r_size r /\ up_state up = UpFin true /\ up_issued up = up_size up.

  Lemma NATU_ext ups ups' r a : E.ups_ext ups ups' -> NATU ups r a -> NATU ups' r a.
  Proof. intros X (up & H1 & H2 & H3 & H4 & H5 & H6 & H7). exists up. splits; auto. Qed.

  Definition dbefore (L : log) (pos : nat) (r : irec) : Prop :=
    forall q l lo hi, nth_error L q = Some (IoData (r_up r) l lo hi) -> q < pos.

  Definition ENT (p : pbl) sd el ups (r : irec) : Prop :=
    exists a, DES sd el r a /\ O.rcov p (fab r a) r /\ (NATU ups r a \/ (a < nb /\ Back r a)).
  Definition LENT (p : pbl) sd el ups (L : log) (pos : nat) (r : irec) : Prop :=
    exists a, DES sd el r a /\ O.rcov p (fab r a) r /\ ((NATU ups r a /\ dbefore L pos r) \/ (a < nb /\ Back r a)).
  Definition liveable (sd : list N) (el : list nat) (r : irec) : Prop := exists a, DES sd el r a.

  (** state [st] covers the records of the log below position [q] and the base records *)
  Definition SCOV sd el (L : log) (q : nat) (st : pstate) : Prop :=
    NoDup (map bs_loc (snd st)) /\
    exists kst, O.stk sd el st kst /\
      (forall pos slot r a, pos < q -> nth_error L pos = Some (IoIndex slot r) -> DES sd el r a ->
         O.cover (fab r a) st kst r) /\
      (forall slot r a, In (slot, r) tb0 -> DES sd el r a -> O.cover (fab r a) st kst r).

  Record mrinv (c : cst) : Prop := mkMR {
    mr_log : forall pos slot r, nth_error (cs_log c) pos = Some (IoIndex slot r) ->
       LENT (s_pbl (cs_sys c)) (cs_seeds c) (cs_elast c) (cs_ups c) (cs_log c) pos r;
    mr_tbl : forall slot r, In (slot, r) (cs_tbl c) -> liveable (cs_seeds c) (cs_elast c) r ->
       ENT (s_pbl (cs_sys c)) (cs_seeds c) (cs_elast c) (cs_ups c) r;
    mr_tb0 : incl tb0 (cs_tbl c);
    mr_fl : forall st, E.in_flight (cs_sys c) st -> SCOV (cs_seeds c) (cs_elast c) (cs_log c) (length (cs_log c)) st;
    mr_wr : forall q st h, nth_error (cs_log c) q = Some (IoWriteNew (st, h)) ->
       SCOV (cs_seeds c) (cs_elast c) (cs_log c) q st
  }.

  Lemma liveable_anti sd el sd' el' r : length el = length sd -> (forall x, In x sd' -> r_seed r <> x) ->
    liveable (sd ++ sd') (el ++ el') r -> liveable sd el r.
  Proof. intros Hlen Hn [a D]. exists a. eapply DES_anti; eauto. Qed.

  Lemma ENT_lift p p' sd el sd' el' ups ups' r :
    (forall ab r0, O.rcov p ab r0 -> O.rcov p' ab r0) -> E.ups_ext ups ups' ->
    ENT p sd el ups r -> ENT p' (sd ++ sd') (el ++ el') ups' r.
  Proof.
    intros HP EU (a & D & Cv & Cl). exists a. split; [apply DES_mono; exact D|]. split; [apply HP; exact Cv|].
    destruct Cl as [Hn|Hi]; [left; eapply NATU_ext; eauto|right; exact Hi].
  Qed.

  Lemma MR_frame c c' X Y sd' el' :
    mrinv c ->
    NoDup (cs_seeds c ++ sd') -> length (cs_elast c) = length (cs_seeds c) ->
    cs_log c' = cs_log c ++ X -> cs_seeds c' = cs_seeds c ++ sd' -> cs_elast c' = cs_elast c ++ el' ->
    cs_tbl c' = cs_tbl c ++ Y -> E.ups_ext (cs_ups c) (cs_ups c') ->
    (forall ab r, O.rcov (s_pbl (cs_sys c)) ab r -> O.rcov (s_pbl (cs_sys c')) ab r) ->
    (forall slot r, In (slot, r) (cs_tbl c) -> forall x, In x sd' -> r_seed r <> x) ->
    (forall pos slot r, nth_error (cs_log c) pos = Some (IoIndex slot r) -> forall x, In x sd' -> r_seed r <> x) ->
    (forall u l lo hi, In (IoData u l lo hi) X -> forall up, nth_error (cs_ups c') u = Some up -> up_state up <> UpFin true) ->
    (forall i slot r, nth_error X i = Some (IoIndex slot r) ->
       LENT (s_pbl (cs_sys c')) (cs_seeds c') (cs_elast c') (cs_ups c') (cs_log c') (length (cs_log c) + i) r /\
       (forall st, E.in_flight (cs_sys c') st -> ~ In (r_seed r) (E.st_seeds st)) /\
       (forall q st h, nth_error (cs_log c) q = Some (IoWriteNew (st, h)) -> ~ In (r_seed r) (E.st_seeds st))) ->
    (forall slot r, In (slot, r) Y -> ENT (s_pbl (cs_sys c')) (cs_seeds c') (cs_elast c') (cs_ups c') r) ->
    (forall st h, In (IoWriteNew (st, h)) X -> (forall slot r, ~ In (IoIndex slot r) X) /\
       SCOV (cs_seeds c) (cs_elast c) (cs_log c) (length (cs_log c)) st) ->
    (forall st, E.in_flight (cs_sys c') st -> E.in_flight (cs_sys c) st \/
       SCOV (cs_seeds c) (cs_elast c) (cs_log c) (length (cs_log c)) st) ->
    mrinv c'.
  Proof.
    intros [M1 M2 M3 M4 M5] Hnd Hlen EL ES EE ET EU HP HTS HLS HD HX HY HW HF.
    assert (Hnd0 : NoDup (cs_seeds c)) by (eapply NoDup_app_l; eauto).
    (* lifting a state cover *)
    assert (Lift : forall q st, q <= length (cs_log c) ->
              SCOV (cs_seeds c) (cs_elast c) (cs_log c) q st ->
              forall q', (forall pos slot r, q <= pos -> pos < q' -> nth_error (cs_log c') pos = Some (IoIndex slot r) ->
                            ~ In (r_seed r) (E.st_seeds st)) ->
              SCOV (cs_seeds c') (cs_elast c') (cs_log c') q' st).
    { intros q st Hq [Hn (kst & K1 & K2 & K3)] q' Hnew. split; [exact Hn|].
      exists kst. rewrite ES, EE. split; [apply O.stk_mono; exact K1|]. split.
      - intros pos slot r a Hpq Hpos Hd. destruct (Nat.lt_ge_cases pos q) as [Hlt|Hge].
        + rewrite EL, nth_error_app1 in Hpos by lia.
          eapply K2; eauto. eapply DES_anti; eauto.
        + apply O.cover_vacuous. rewrite <- ES, <- EE in Hd. eapply Hnew; eauto.
      - intros slot r a Hin Hd. eapply K3; eauto. eapply DES_anti; eauto. }
    constructor.
    - (* log *)
      intros pos slot r Hpos. rewrite EL in Hpos.
      destruct (Nat.lt_ge_cases pos (length (cs_log c))) as [Hlt|Hge].
      + rewrite nth_error_app1 in Hpos by exact Hlt.
        destruct (M1 _ _ _ Hpos) as (a & D & Cv & Cl). exists a. rewrite ES, EE.
        split; [apply DES_mono; exact D|]. split; [apply HP; exact Cv|].
        destruct Cl as [[Hn Hb]|Hi]; [left|right; exact Hi].
        pose proof (NATU_ext _ _ _ _ EU Hn) as Hn'. split; [exact Hn'|].
        intros q l lo hi Hq. rewrite EL in Hq.
        destruct (Nat.lt_ge_cases q (length (cs_log c))) as [Hl|Hg].
        * rewrite nth_error_app1 in Hq by exact Hl. eapply Hb; eauto.
        * rewrite nth_error_app2 in Hq by exact Hg. apply nth_error_In in Hq. exfalso.
          destruct Hn' as (up & U1 & _ & _ & _ & _ & U6 & _). eapply HD; eauto.
      + rewrite nth_error_app2 in Hpos by exact Hge.
        destruct (HX _ _ _ Hpos) as [H1 _].
        replace (length (cs_log c) + (pos - length (cs_log c))) with pos in H1 by lia. exact H1.
    - (* table *)
      intros slot r Hin Hlv. rewrite ET in Hin. apply in_app_iff in Hin. destruct Hin as [Hin|Hin]; [|eauto].
      rewrite ES, EE in Hlv. apply liveable_anti in Hlv; [|exact Hlen|eauto].
      rewrite ES, EE. exact (ENT_lift _ _ _ _ _ _ _ _ _ HP EU (M2 _ _ Hin Hlv)).
    - intros x Hx. rewrite ET. apply in_app_iff. left. apply M3. exact Hx.
    - (* in flight *)
      intros st Hf.
      assert (Hs : SCOV (cs_seeds c) (cs_elast c) (cs_log c) (length (cs_log c)) st).
      { destruct (HF st Hf) as [H|H]; [auto|exact H]. }
      eapply Lift; [apply Nat.le_refl|exact Hs|].
      intros pos slot r Hge Hlt Hpos. rewrite EL in Hpos. rewrite nth_error_app2 in Hpos by exact Hge.
      destruct (HX _ _ _ Hpos) as [_ [H2 _]]. apply H2. exact Hf.
    - (* written *)
      intros q st h Hq. rewrite EL in Hq.
      destruct (Nat.lt_ge_cases q (length (cs_log c))) as [Hlt|Hge].
      + rewrite nth_error_app1 in Hq by exact Hlt.
        eapply Lift; [apply Nat.lt_le_incl; exact Hlt|eapply M5; eauto|]. intros pos slot r Hge Hlt' _. lia.
      + rewrite nth_error_app2 in Hq by exact Hge.
        destruct (HW _ _ (nth_error_In _ _ Hq)) as [Hni Hs].
        eapply Lift; [apply Nat.le_refl|exact Hs|].
        intros pos slot r Hge' Hlt' Hpos. rewrite EL in Hpos. rewrite nth_error_app2 in Hpos by exact Hge'.
        exfalso. eapply Hni. eapply nth_error_In; eauto.
  Qed.
  Variable BackE : irec -> Prop.
  Variable old sd0 : list N.

  Local Notation MR := mrinv.
  Local Notation RC := (rcinv BackE old sd0).

  (** a state obtained by GetPersistentState covers the log and the base records *)
  Lemma SCOV_gps c p1 st : MR c -> A.ginv (s_pbl (cs_sys c)) (cs_seeds c) (cs_elast c) ->
    NoDup (map b_loc (blocks (s_pbl (cs_sys c)))) ->
    get_persistent_state (s_pbl (cs_sys c)) = Ok (p1, st) ->
    SCOV (cs_seeds c) (cs_elast c) (cs_log c) (length (cs_log c)) st.
  Proof.
    intros [M1 M2 M3 M4 M5] G Hnl Hg. destruct (gps_cover _ _ _ _ _ G Hg) as [K1 K2].
    pose proof (A.gi_nodup _ _ _ G) as Hnd.
    split.
    { eapply (NoDup_pointwise _ _ Hnl). intros i x Hi. rewrite nth_error_map in Hi.
      destruct (nth_error (snd st) i) as [b|] eqn:Eb; [|discriminate]. cbn in Hi. inv Hi.
      apply (proj1 (A.gps_spec _ _ _ Hg i b Eb)). }
    exists (totalReleased (s_pbl (cs_sys c))). split; [exact K1|]. split.
    - intros pos slot r a _ Hpos Hd. destruct (M1 _ _ _ Hpos) as (a0 & D0 & Cv & _).
      assert (a = a0) by (eapply DES_fun; eauto). subst a0. apply K2. exact Cv.
    - intros slot r a Hin Hd. destruct (M2 _ _ (M3 _ Hin) (ex_intro _ a Hd)) as (a0 & D0 & Cv & _).
      assert (a = a0) by (eapply DES_fun; eauto). subst a0. apply K2. exact Cv.
  Qed.

  (** the seed of a record appended by a step is not synchronized: it occurs in no state file *)
  Lemma new_seed_open c c' X i slot r : RC c -> RC c' ->
    cs_log c' = cs_log c ++ X -> cs_closed_at c' = cs_closed_at c ->
    nth_error X i = Some (IoIndex slot r) ->
    (forall st, E.in_flight (cs_sys c') st -> ~ In (r_seed r) (E.st_seeds st)) /\
    (forall q st h, nth_error (cs_log c') q = Some (IoWriteNew (st, h)) -> ~ In (r_seed r) (E.st_seeds st)).
  Proof.
    intros [[_ [_ [HL _]]] _] [[HS' [_ [HL' _]]] _] EL EC Hi.
    assert (Hn : ~ In (r_seed r) (firstn (cs_nsynced c') (cs_seeds c'))).
    { intros Hin. pose proof (E.si_le1 _ _ _ _ _ _ HS') as Hle.
      apply (E.in_firstn_le _ _ _ _ Hin) in Hle.
      destruct (li_C _ _ _ _ _ _ _ _ _ _ HL') as [_ C'].
      destruct (li_C _ _ _ _ _ _ _ _ _ _ HL) as [C _].
      assert (Hp : nth_error (cs_log c') (length (cs_log c) + i) = Some (IoIndex slot r)).
      { rewrite EL, nth_error_app2 by lia. replace (_ + i - _) with i by lia. exact Hi. }
      specialize (C' _ _ _ Hp Hle). rewrite EC in C'. lia. }
    split.
    - intros st Hf Hs. apply Hn. eapply (E.si_W _ _ _ _ _ _ HS'); eauto.
    - intros q st h Hq Hs. apply Hn. eapply (li_W _ _ _ _ _ _ _ _ _ _ HL'); eauto.
  Qed.

  (** the record writes of a finalizer section *)
  Lemma do_writes_MR p k u ws sd el ups :
    A.ginv p sd el -> (Z.of_nat (length (blocks p)) < 65536)%Z ->
    NoDup (epochSeeds p) -> synchronizedEpochs p <= synchronizingEpochs p ->
    synchronizingEpochs p < length (epochSeeds p) ->
    nth_error ups k = Some (mkUp (up_key u) (up_abs u) (up_off u) (up_size u) (up_issued u) (UpFin true)) ->
    up_issued u = up_size u ->
    (forall n' la, length (epochLast p) = S n' -> nth_error (epochLast p) n' = Some la -> up_abs u <= la) ->
    up_abs u < totalReleased p + length (blocks p) ->
    (forall b, totalReleased p <= up_abs u -> nth_error (blocks p) (up_abs u - totalReleased p) = Some b ->
       (up_off u + up_size u <= b_written b)%Z) ->
    forall L tbl L' tbl', do_writes p k u ws L tbl = Some (L', tbl') ->
      (forall slot r0, In (slot, r0) tbl -> liveable sd el r0 -> ENT p sd el ups r0) ->
      exists Y, L' = L ++ map (fun e => IoIndex (fst e) (snd e)) Y /\ tbl' = tbl ++ Y /\
        forall slot r, In (slot, r) Y -> ENT p sd el ups r.
  Proof.
    intros G Hsmall Hnd H1 H2 Hk Hiss Hlast Hlt Hw.
    induction ws as [|w ws IH]; intros L tbl L' tbl' H Htbl; cbn [do_writes] in H.
    - inv H. exists []. cbn. rewrite !app_nil_r. splits; auto. intros ? ? [].
    - assert (Hcons : forall slot r, ENT p sd el ups r ->
                do_writes p k u ws (L ++ [IoIndex slot r]) (tbl ++ [(slot, r)]) = Some (L', tbl') ->
                exists Y, L' = L ++ map (fun e => IoIndex (fst e) (snd e)) Y /\ tbl' = tbl ++ Y /\
                  forall slot r, In (slot, r) Y -> ENT p sd el ups r).
      { intros slot r Hr H'. destruct (IH _ _ _ _ H') as (Y & Y1 & Y2 & Y3).
        { intros s0 r0 Hin Hlv. apply in_app_iff in Hin. destruct Hin as [Hin|[Hin|[]]]; [eauto|]. inv Hin. exact Hr. }
        exists ((slot, r) :: Y). cbn. rewrite Y1, Y2, <- !app_assoc. splits; auto.
        intros s0 r0 [Hin|Hin]; [inv Hin; exact Hr|eauto]. }
      destruct w as [slot|from to].
      + destruct (Nat.ltb_spec (up_abs u) (totalReleased p)); [discriminate|].
        destruct (mk_rec p (up_abs u - totalReleased p) (up_key u) (up_off u) (up_size u) k) as [r|] eqn:Em;
          [|discriminate].
        destruct (E.mk_rec_facts _ _ _ _ _ _ _ Em) as (F1 & F2 & F3 & F4 & F5).
        apply (Hcons slot r); [|exact H].
        exists (up_abs u). split; [|split].
        * apply (A.mk_rec_ok p sd el (fab r (up_abs u)) (up_abs u - totalReleased p) (up_key u) (up_off u) (up_size u) k r
                   (up_abs u) G Hsmall Em); [rewrite <- F4; apply fab_nth|lia|exact Hlast].
        * eapply (O.rcov_new p (fab r (up_abs u)) r (up_abs u)); eauto; [apply fab_nth|]. rewrite F2, F3. exact Hw.
        * left. eexists. rewrite F4. split; [exact Hk|]. cbn. splits; auto.
      + destruct (slot_get tbl from None) as [r0|] eqn:Es; [|discriminate].
        destruct (live_index p r0) as [i|] eqn:El; [|discriminate].
        destruct (mk_rec p i (r_key r0) (r_off r0) (r_size r0) (r_up r0)) as [r|] eqn:Em; [|discriminate].
        destruct (E.mk_rec_facts _ _ _ _ _ _ _ Em) as (F1 & F2 & F3 & F4 & F5).
        assert (Hlv : liveable sd el r0).
        { destruct (resolve_ref_spec _ _ _ _ _ El) as (e & la & E1 & E2 & E3 & E4).
          destruct G as [G1 [k0 [Gk [G2 G3]]] G4 G5].
          exists (Z.to_nat (Z.of_nat la - Z.of_N (r_bfl r0))). apply DES_iff.
          exists (k0 + e), la. rewrite <- !A.nth_error_skipn', <- G2, <- G3. splits; auto. lia. }
        assert (Hr0 : ENT p sd el ups r0).
        { apply E.slot_get_in in Es. destruct Es as [Es|[s' Hin]]; [discriminate|]. eauto. }
        apply (Hcons to r); [|exact H].
        destruct Hr0 as (a0 & D0 & Cv0 & Cl0).
        destruct (A.live_index_abs _ _ _ _ _ _ G D0 El) as (a' & A1 & A2 & A3).
        rewrite fab_nth in A1. inv A1.
        exists (totalReleased p + i). split; [|split].
        * apply (A.mk_rec_ok p sd el (fab r (totalReleased p + i)) i (r_key r0) (r_off r0) (r_size r0) (r_up r0) r
                   (totalReleased p + i) G Hsmall Em); [rewrite <- F4; apply fab_nth|reflexivity|exact A3].
        * destruct Cv0 as (a0 & C1 & C2 & C3). rewrite fab_nth in C1. inv C1.
          eapply (O.rcov_new p (fab r (totalReleased p + i)) r (totalReleased p + i)); eauto; [apply fab_nth|].
          rewrite F2, F3. intros b Hle Hb. apply (C3 b Hle Hb).
        * destruct Cl0 as [(up & N1 & N2 & N3 & N4 & N5 & N6 & N7)|[I1 I2]].
          -- left. exists up. rewrite F1, F2, F3, F4. splits; auto.
          -- right. split; [exact I1|]. eapply Back_same; eauto.
  Qed.

  Variable g : geo.
  Hypothesis Hg65 : length (g_locs g) < 65536.
  Hypothesis Hndg : NoDup (g_locs g).

  (** a step that creates no seed and writes no record *)
  Lemma MR_frame0 c c' X : MR c ->
    NoDup (cs_seeds c) -> length (cs_elast c) = length (cs_seeds c) -> cs_tbl c' = cs_tbl c ->
    cs_log c' = cs_log c ++ X -> same_ghost c c' -> E.ups_ext (cs_ups c) (cs_ups c') ->
    (forall ab r, O.rcov (s_pbl (cs_sys c)) ab r -> O.rcov (s_pbl (cs_sys c')) ab r) ->
    (forall u l lo hi, In (IoData u l lo hi) X -> forall up, nth_error (cs_ups c') u = Some up -> up_state up <> UpFin true) ->
    (forall slot r, ~ In (IoIndex slot r) X) ->
    (forall st h, In (IoWriteNew (st, h)) X ->
       SCOV (cs_seeds c) (cs_elast c) (cs_log c) (length (cs_log c)) st) ->
    (forall st, E.in_flight (cs_sys c') st -> E.in_flight (cs_sys c) st \/
       SCOV (cs_seeds c) (cs_elast c) (cs_log c) (length (cs_log c)) st) ->
    MR c'.
  Proof.
    intros M Hnd Hlen ET EL [ES EE] EU HP HD HX HW HF.
    rewrite <- (app_nil_r (cs_seeds c)) in Hnd, ES. rewrite <- (app_nil_r (cs_elast c)) in EE.
    rewrite <- (app_nil_r (cs_tbl c)) in ET.
    apply (MR_frame c c' X [] [] [] M Hnd Hlen EL ES EE ET EU HP).
    - intros slot r _ x [].
    - intros pos slot r _ x [].
    - exact HD.
    - intros i slot r Hi. destruct (HX _ _ (nth_error_In _ _ Hi)).
    - intros slot r [].
    - intros st h Hin. split; [exact HX|eauto].
    - exact HF.
  Qed.

  Lemma MR_quiet c c' : MR c ->
    NoDup (cs_seeds c) -> length (cs_elast c) = length (cs_seeds c) -> cs_tbl c' = cs_tbl c ->
    cs_log c' = cs_log c -> same_ghost c c' -> E.ups_ext (cs_ups c) (cs_ups c') ->
    (forall ab r, O.rcov (s_pbl (cs_sys c)) ab r -> O.rcov (s_pbl (cs_sys c')) ab r) ->
    (forall st, E.in_flight (cs_sys c') st -> E.in_flight (cs_sys c) st) ->
    MR c'.
  Proof.
    intros M Hnd Hlen ET EL Hgh EU HP HF. rewrite <- (app_nil_r (cs_log c)) in EL.
    apply (MR_frame0 c c' [] M Hnd Hlen ET EL Hgh EU HP).
    - intros u l lo hi [].
    - intros slot r [].
    - intros st h [].
    - intros st Hf. left. apply HF. exact Hf.
  Qed.

  Lemma MR_step cfg cur0 c ch c' ch' e :
    sim c ch -> SH g cur0 ch -> sim c' ch' -> SH g cur0 ch' ->
    RC c -> RC c' -> usz c -> MR c -> cstep g cfg c e = Some c' -> MR c'.
  Proof.
    intros Sm HSH Sm' HSH' R R' U M H.
    pose proof (SH_ginv _ _ _ _ Sm HSH) as G. pose proof (SH_ginv _ _ _ _ Sm' HSH') as G'.
    pose proof (A.gi_nodup _ _ _ G) as Hnd. pose proof (A.gi_len _ _ _ G) as Hlen.
    assert (Hnl : NoDup (map b_loc (blocks (s_pbl (cs_sys c))))).
    { pose proof (proj1 (rinv_window _ _ Hndg (sh_r _ _ _ HSH) (sh_a _ _ _ HSH))) as HN.
      unfold regions in HN. apply nodup_app_l in HN. rewrite (proj1 (sim_fields _ _ Sm)) in HN. exact HN. }
    pose proof (MR_quiet c c' M Hnd Hlen) as Quiet.
    pose proof (fun X => MR_frame0 c c' X M Hnd Hlen) as Frame.
    assert (HFpcs : same_pcs c c' -> forall st, E.in_flight (cs_sys c') st -> E.in_flight (cs_sys c) st).
    { intros [Er Ep] st Hf. eapply E.in_flight_frame; eauto. }
    assert (HFsys : cs_sys c' = cs_sys c -> forall st, E.in_flight (cs_sys c') st -> E.in_flight (cs_sys c) st).
    { intros -> st Hf. exact Hf. }
    assert (HPsys : cs_sys c' = cs_sys c ->
              forall ab r, O.rcov (s_pbl (cs_sys c)) ab r -> O.rcov (s_pbl (cs_sys c')) ab r).
    { intros -> ab r Hr. exact Hr. }
    apply cstep_eff in H. eff_cases H.
    - (* trivial *)
      apply obs_fields in Hobs. destruct Hobs as (E1 & E2 & E3 & E4 & E5 & E6 & E7 & E8 & E9 & E10 & E11).
      apply Quiet; [apply Xrest|exact E4|split; assumption| | |apply HFpcs; split; assumption].
      + rewrite E5. apply E.ups_ext_refl.
      + rewrite E1. auto.
    - (* push *)
      apply Quiet; [exact Xtbl|exact Hlg|exact Hgh| | |exact (HFpcs Hpc)].
      + rewrite Hu. apply E.ups_ext_refl.
      + rewrite Hp. intros ab r. apply O.rcov_push.
    - (* pop *)
      apply Quiet; [apply Xrest|exact Hlg|exact Hgh| | |exact (HFpcs Hpc)].
      + rewrite Hu. apply E.ups_ext_refl.
      + rewrite Hp. intros ab r. eapply O.rcov_pop; eauto.
    - (* putstart *)
      apply Quiet; [exact Xtbl|exact Hlg|exact Hgh| | |exact (HFpcs Hpc)].
      + rewrite Hu. apply E.ups_ext_app.
      + rewrite Hp. auto.
    - (* data: the upload written to is not finalized *)
      apply (Frame _ (proj1 (proj2 Xrest)) Hlg Hgh); [|exact (HPsys Hsys)| | | |].
      + rewrite Hu. eapply E.ups_ext_upd; [exact Hk|rewrite Hst; discriminate].
      + intros u0 l0 lo hi [Hin|[]]. inv Hin. intros up Hup. rewrite Hu in Hup.
        rewrite (E.nth_upd_same _ _ _ _ Hk) in Hup. inv Hup. cbn. rewrite Hst. discriminate.
      + intros slot r [Hin|[]]. discriminate.
      + intros st h [Hin|[]]. discriminate.
      + intros st Hf. left. exact (HFsys Hsys st Hf).
    - (* writer done *)
      apply Quiet; [apply Xrest|exact Hlg|exact Hgh| |exact (HPsys Hsys)|exact (HFsys Hsys)].
      rewrite Hu. eapply E.ups_ext_upd; [exact Hk|rewrite Hst; discriminate].
    - (* finalize *)
      pose proof R as [[HS [HU [HL _]]] Ho]. pose proof (proj1 (E.si_inv1 _ _ _ _ _ _ HS)) as Ipbl.
      assert (HPc : forall ab r, O.rcov (s_pbl (cs_sys c)) ab r -> O.rcov (s_pbl (cs_sys c')) ab r).
      { rewrite Hp. intros ab r. eapply O.rcov_fin; eauto. }
      assert (Hext : E.ups_ext (cs_ups c) (cs_ups c')).
      { rewrite Hu. eapply E.ups_ext_upd; [exact Hk|rewrite Hst; discriminate]. }
      assert (Hnew : forall x, In x sd' -> x = seed).
      { destruct (_ <? _); inv Xbump; [intros x [<-|[]]; reflexivity|intros x []]. }
      assert (EC : cs_closed_at c' = cs_closed_at c) by (destruct Xsync as [_ Xsg]; inv Xsg; reflexivity).
      assert (HTS : forall slot r, In (slot, r) (cs_tbl c) -> forall x, In x sd' -> r_seed r <> x).
      { intros slot r Hin x Hx He. apply Hnew in Hx. subst x.
        destruct (li_S _ _ _ _ _ _ _ _ _ _ HL _ _ Hin) as [Hx|Hx]; rewrite He in Hx.
        - rewrite <- Ho in Hx. exact (fresh_not_old _ _ Xfresh Hx).
        - exact (E.fresh_not_in _ _ Xfresh Hx). }
      assert (HLS : forall pos slot r, nth_error (cs_log c) pos = Some (IoIndex slot r) ->
                forall x, In x sd' -> r_seed r <> x).
      { intros pos slot r Hpos x Hx He. apply Hnew in Hx. subst x.
        destruct (mr_log _ M _ _ _ Hpos) as (a & D & _). apply DES_seed in D. rewrite He in D.
        exact (E.fresh_not_in _ _ Xfresh D). }
      assert (HY : exists Y, cs_log c' = cs_log c ++ map (fun e => IoIndex (fst e) (snd e)) Y /\
                 cs_tbl c' = cs_tbl c ++ Y /\
                 forall slot r, In (slot, r) Y -> ENT p' (cs_seeds c') (cs_elast c') (cs_ups c') r).
      { destruct Xws as [(off & -> & -> & Edw)|(_ & _ & -> & Etb)].
        2:{ exists []. cbn. rewrite !app_nil_r in *. splits; auto. intros ? ? []. }
        (* the finalizer that succeeded: its own record designates its upload *)
        destruct (O.put_finalize_view _ _ _ _ _ _ _ Hpf) as (V1 & _ & _ & V4 & _ & _ & V7).
        destruct (V7 off eq_refl) as (abs & -> & T2 & T3 & T4 & T5).
        assert (Habs : abs = up_abs u).
        { pose proof (SH_tok _ _ _ _ Sm HSH) as Htok.
          eapply (A.Forall2_nth _ _ _ k (up_abs u)) in Htok; [| |exact Xtok]; [exact Htok|].
          unfold A.abss. apply map_nth_error. exact Hk. }
        assert (Hok : ok = true) by (destruct ok; [reflexivity|discriminate]).
        assert (Hsize : size = up_size u) by (eapply (proj2 U); eauto).
        subst abs ok size. injection T2 as <-.
        destruct (sim_fields _ _ Sm) as (F1 & F2 & _ & _ & _ & _ & _ & F8 & _ & F10).
        destruct (E.put_finalize_core _ _ _ _ _ _ _ Ipbl Hpf) as (P1 & P2 & P3 & _).
        pose proof (i_sync1 _ Ipbl) as S1. pose proof (i_sync2 _ Ipbl) as S2.
        apply (do_writes_MR p' k u ws) with (11 := Edw).
        - rewrite <- Hp. exact G'.
        - pose proof (A.ci_count _ _ (sh_a _ _ _ HSH')) as Cn. rewrite (proj1 (sim_fields _ _ Sm')), Hp in Cn.
          apply A.small_nat_Z. lia.
        - destruct G' as [_ [k0 [_ [G2 _]]] _ G5]. rewrite Hp in G2. rewrite G2. apply O.NoDup_skipn. exact G5.
        - lia.
        - rewrite P1. destruct P3 as [[P3 Hne]|P3]; rewrite P3; [specialize (Hne _ eq_refl)|rewrite app_length; cbn]; lia.
        - rewrite Hu, (E.nth_upd_same _ _ _ _ Hk). reflexivity.
        - exact (HU _ _ Hk Hst).
        - (* from the allocation invariant of the shadow run, which makes the same step *)
          rewrite <- F1 in Xtok, Hpf. rewrite <- F2 in Hk.
          assert (Efr' : fresh ch seed = true) by (unfold fresh in *; rewrite F8, F10; exact Xfresh).
          pose proof (A.cinv_fin_core g ch k u _ _ seed _ p' _ true (sh_a _ _ _ HSH) Hk Xtok Efr' Hpf) as Core.
          cbv zeta in Core. exact (proj2 Core _ eq_refl).
        - rewrite V1, V4. lia.
        - intros b0 Hle Hb. rewrite V1 in Hb. apply T5. exact Hb.
        - intros slot r0 Hin Hlv. rewrite Hsd, Hel in Hlv |- *.
          apply liveable_anti in Hlv; [|exact Hlen|eapply HTS; eauto].
          rewrite <- Hp. eapply ENT_lift; [exact HPc|exact Hext|]. apply (mr_tbl _ M _ _ Hin Hlv). }
      destruct HY as (Y & EL & ET & HYe).
      assert (HndX : NoDup (cs_seeds c ++ sd')) by (rewrite <- Hsd; apply (A.gi_nodup _ _ _ G')).
      assert (Hidx : forall e, In e (map (fun e => IoIndex (fst e) (snd e)) Y) ->
                exists x, In x Y /\ e = IoIndex (fst x) (snd x)).
      { intros e He. apply in_map_iff in He. destruct He as (x & <- & Hx). eauto. }
      apply (MR_frame c c' _ Y sd' el' M HndX Hlen EL Hsd Hel ET Hext HPc HTS HLS).
      + intros u0 l lo hi Hin. destruct (Hidx _ Hin) as (x & _ & Hx). discriminate.
      + intros i slot r Hi.
        assert (Hin : In (slot, r) Y).
        { destruct (Hidx _ (nth_error_In _ _ Hi)) as ([s0 r0] & Hin & Hx). inv Hx. exact Hin. }
        pose proof (new_seed_open c c' _ i slot r R R' EL EC Hi) as [N1 N2].
        split; [|split; [exact N1|]].
        * destruct (HYe _ _ Hin) as (a & D & Cv & Cl). exists a. rewrite Hp. split; [exact D|]. split; [exact Cv|].
          destruct Cl as [Hn|Hi']; [left|right; exact Hi']. split; [exact Hn|].
          intros q l lo hi Hq. rewrite EL in Hq.
          destruct (Nat.lt_ge_cases q (length (cs_log c))) as [Hlt|Hge]; [lia|].
          rewrite nth_error_app2 in Hq by exact Hge.
          destruct (Hidx _ (nth_error_In _ _ Hq)) as (x & _ & Hx). discriminate.
        * intros q st h Hq. eapply (N2 q). rewrite EL. apply A.nth_error_app_some. exact Hq.
      + intros slot r Hin. rewrite Hp. eauto.
      + intros st h Hin. destruct (Hidx _ Hin) as (x & _ & Hx). discriminate.
      + intros st Hf. left. exact (HFpcs Hpc st Hf).
    - (* thread: a state that comes into flight was just taken by GetPersistentState *)
      destruct (A.estep_effect _ _ _ _ _ Hs) as (_ & _ & Rr & Pp). rewrite Forall_forall in Hex.
      apply (Frame _ Xtbl Hlg Hgh).
      + rewrite Hu. apply E.ups_ext_refl.
      + rewrite Hsys. intros ab r. eapply O.estep_rcov; eauto.
      + intros u l lo hi Hin. destruct (Hex _ Hin).
      + intros slot r Hin. exact (Hex _ Hin).
      + intros st h Hin. destruct (Hex _ Hin).
      + rewrite Hsys. intros st [Hf|[k Hf]].
        * destruct (Rr _ Hf) as [Hr|[p1 Hg1]]; [left; left; exact Hr|right; eapply SCOV_gps; eauto].
        * destruct (Pp _ _ Hf) as [Hr|[p1 Hg1]]; [left; right; eauto|right; eapply SCOV_gps; eauto].
    - (* dir: the state written is the one in flight *)
      apply (Frame _ (proj1 (proj2 Xrest)) Hlg Hgh); [|exact (HPsys Hsys)| | | |].
      + rewrite Hu. apply E.ups_ext_refl.
      + intros u l lo hi [Hin|[]]. destruct (cs_dirpc c) as [|[|[|[|[|?]]]]]; discriminate.
      + intros slot r [Hin|[]]. destruct (cs_dirpc c) as [|[|[|[|[|?]]]]]; discriminate.
      + intros st0 h [Hin|[]]. destruct (cs_dirpc c) as [|[|[|[|[|?]]]]]; try discriminate. inv Hin.
        apply (mr_fl _ M). apply E.writing_in_flight. exact Hw.
      + intros st0 Hf. left. exact (HFsys Hsys st0 Hf).
  Qed.
End Rec.

Section RecReach.
  Variable g : geo.
  Variable base : medium irec.
  Hypothesis Hg65 : length (g_locs g) < 65536.
  Hypothesis Hndg : NoDup (g_locs g).
  Hypothesis Hbase : base_ok g base.

  Let p0 := fst (restart (geom g) (m_state base)).
  Let nb := length (blocks p0).

  Variable Back : irec -> nat -> Prop.
  Hypothesis Back_same : forall r r0 a, r_key r = r_key r0 -> r_off r = r_off r0 -> r_size r = r_size r0 ->
    Back r0 a -> Back r a.
  (** what the base medium promises for every base record that seed-resolves at the restart *)
  Hypothesis HB : forall slot r a, In (slot, r) (m_index base) -> sres p0 r a ->
    Back r a /\ exists b, nth_error (blocks p0) a = Some b /\ (r_off r + r_size r <= b_written b)%Z.
  Variable BackE : irec -> Prop.
  Hypothesis BackE_same : forall r r0, r_key r = r_key r0 -> r_off r = r_off r0 -> r_size r = r_size r0 ->
    BackE r0 -> BackE r.
  Hypothesis HBE : forall slot r, In (slot, r) (m_index base) -> In (r_seed r) (epochSeeds p0) -> BackE r.

  Let old := map (fun e : nat * irec => r_seed (snd e)) (m_index base).
  Let sd0 := epochSeeds p0.
  Let tb0 := m_index base.

  Lemma MR_init t0 : mrinv nb Back tb0 (cinit g base t0).
  Proof.
    destruct (restart_shape g (m_state base)) as (R1 & R2 & R3 & R4 & R5 & R6 & R7). fold p0 in R1, R2, R3, R4, R5, R6, R7.
    constructor; cbn [cinit cs_sys cs_log cs_ups cs_tbl cs_seeds cs_elast s_pbl init_sys]; fold p0.
    - intros pos slot r H. destruct pos; discriminate.
    - intros slot r Hin (a & D).
      destruct (HB _ _ _ Hin (proj2 (sres_DES _ _ _) D)) as (Bk & b & B1 & B2).
      assert (Hlt : a < nb) by (apply nth_error_Some; unfold nb; congruence).
      exists a. split; [exact D|split].
      + exists a. split; [apply fab_nth|]. rewrite R3. split; [exact Hlt|].
        intros b' _ Hb'. rewrite Nat.sub_0_r, B1 in Hb'. inv Hb'. split; [exact B2|].
        destruct (R7 _ (nth_error_In _ _ B1)) as [O1 O2]. rewrite O1, O2. intros e0 _. split; intros; exact B2.
      + right. split; [exact Hlt|exact Bk].
    - apply incl_refl.
    - intros st [Hf|[k Hf]]; discriminate Hf.
    - intros q st h H. destruct q; discriminate.
  Qed.

  (** the invariants of a reachable state of the life, together with its shadow *)
  Record reachinv (t0 : N) (c : cst) : Prop := mkRI {
    ri_sh : exists ch, sim c ch /\ SH g (cs_cur (cinit g base t0)) ch;
    ri_rc : rcinv BackE old sd0 c;
    ri_us : usz c;
    ri_mr : mrinv nb Back tb0 c
  }.

  Lemma reachinv_run cfg t0 tr : forall c c', reachinv t0 c -> crun g cfg c tr = Some c' -> reachinv t0 c'.
  Proof.
    induction tr as [|e tr IH]; intros c c' RI H; cbn in H; [inv H; exact RI|].
    destruct (cstep g cfg c e) as [c1|] eqn:Es; [|discriminate].
    eapply IH; [|exact H]. clear IH H.
    destruct RI as [(ch & Sm & HSH) RC U M].
    destruct (shadow_step _ _ _ _ _ _ _ Hg65 Hndg Sm HSH Es) as (ch1 & Sm1 & HSH1).
    pose proof (cstep_rcinv _ BackE_same _ _ _ _ _ _ _ RC Es) as RC1.
    constructor.
    - exists ch1. split; [exact Sm1|exact HSH1].
    - exact RC1.
    - exact (usz_step _ _ _ _ _ U Es).
    - exact (MR_step nb Back Back_same tb0 BackE old sd0 g Hg65 Hndg cfg _ c ch c1 ch1 e Sm HSH Sm1 HSH1 RC RC1 U M Es).
  Qed.

  Theorem creach_reachinv cfg t0 c : creach g cfg base t0 c -> reachinv t0 c.
  Proof.
    intros [tr H]. eapply reachinv_run; [|exact H]. constructor.
    - exists (shinit g base t0). split; [apply sim_init|apply SH_init; auto].
    - apply cinit_rcinv; auto. apply (proj1 Hbase).
    - apply usz_init.
    - apply MR_init.
  Qed.
End RecReach.
