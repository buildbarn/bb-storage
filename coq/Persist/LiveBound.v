(** Persist/LiveBound.v — upload_commit_bound: the interval timer that precedes
    the data sync covering an upload acknowledged at virtual time t expires no
    later than max(t, lastSynchronizationTime) + minimumEpochInterval, under
    the hypothesis that the put loop's internal steps take no virtual time
    ([urgent]: the clock does not advance while the put loop has an enabled
    step that needs neither an I/O completion nor a timer).  Everything else
    that separates the acknowledgement from the start of the covering sync is
    I/O of the cycle in flight (DataSyncer / WritePersistentState calls, retry
    sleeps, storeLock held by the release loop) and timer latency. *)
From Coq Require Import List NArith ZArith Bool Arith Lia.
From BBS Require Import Persist.PBL Persist.PBLProofs Persist.Syncer Persist.SyncerProofs
  Persist.LiveActs Persist.LiveCover Persist.LiveFair Persist.LivePut.
Import ListNotations.

(** the clock does not advance while the put loop can take an internal step *)
Fixpoint urgent (cfg : config) (s : sys) (tr : list event) : bool :=
  match tr with
  | [] => true
  | e :: tr' =>
      match step cfg s e with
      | Some (Ok s') =>
          (match e with ETick _ => negb (p_internal cfg s) | _ => true end) && urgent cfg s' tr'
      | _ => true
      end
  end.

(** in every reachable state an armed interval timer expires at most one
    interval after max(now, lastSynchronizationTime) *)
Definition tb (cfg : config) (s : sys) : Prop :=
  forall dl, s_p s = PTimer dl -> (dl <= N.max (s_now s) (s_last s) + c_interval cfg)%N.

(** how a step changes pc / clock / lastSynchronizationTime of the put loop *)
Definition tp_timer_step (cfg : config) (s s' : sys) : Prop :=
  match s_p s with
  | PSelect ch => s_last s' = s_last s /\
      s_p s' = (if is_closed (heap (s_pbl s)) ch then PTimer (s_last s + c_interval cfg) else PIdle ch)
  | PIdle _ => s_last s' = s_last s /\
      (s_p s' = PNotify false \/ s_p s' = PTimer (s_now s + c_interval cfg))
  | PTimer _ => s_p s' = PNotify true \/ (s_p s' = PNotify false /\ s_last s' = s_last s)
  | _ => s_last s' = s_last s /\ (forall dl, s_p s' <> PTimer dl) /\ (forall ch, s_p s' <> PIdle ch)
  end.

Lemma step_timer_facts cfg s e s' : inv1 s -> step cfg s e = Some (Ok s') ->
  (s_now s <= s_now s')%N
  /\ ((forall d, e <> ETick d) -> s_now s' = s_now s)
  /\ ((forall a, e <> EStep TP a) -> s_p s' = s_p s /\ s_last s' = s_last s)
  /\ (forall a, e = EStep TP a -> tp_timer_step cfg s s').
Proof.
  intros II H. destruct (env_or_step e) as [Hne|(t & a & ->)].
  - destruct (env_frame _ _ _ _ Hne H) as [_ Ep]. destruct (env_frame_t _ _ _ _ Hne H) as (El & _ & Hn).
    split; [exact Hn|]. split; [|split; [auto|intros a ->; exfalso; eapply Hne; reflexivity]].
    intros Hnt. destruct (env_cases H (not_step_env _ Hne)); try reflexivity. exfalso. eapply Hnt. reflexivity.
  - destruct t; cbn [step] in H.
    + destruct (rstep_frame_t _ _ _ _ II H) as (El & _ & En). rewrite En.
      split; [lia|]. split; [auto|]. split; [|intros a' [=]].
      intros _. split; [eapply rstep_frame; eauto|exact El].
    + assert (s_now s' = s_now s) as Hn by (destruct (pstep_fields H) as (? & ? & ? & ? & ? & ? & ->); reflexivity).
      split; [lia|]. split; [intros _; exact Hn|]. split; [intros Hx; exfalso; eapply Hx; reflexivity|].
      intros _ _. unfold tp_timer_step.
      destruct (pstep_cases H) as [pc pc' Ep J|dl Ep _ _ _|keep Ep|Ep|keep final Ep _|keep w s1 w' Ep Hw]; rewrite Ep.
      2-5: cbn; splits; auto; intros; discriminate.
      * destruct J as [|ch E|ch E| | | | | |]; cbn; try rewrite E; splits; auto; intros; discriminate.
      * destruct (wstep_fields Hw) as (p' & st' & ws' & ->). cbn.
        splits; auto; intros; (destruct w'; [|destruct keep]); discriminate.
Qed.

Lemma step_tb cfg s e s' : inv1 s -> tb cfg s -> step cfg s e = Some (Ok s') -> tb cfg s'.
Proof.
  intros II B H dl Hd. destruct (step_timer_facts _ _ _ _ II H) as [Hmono [_ [Hother Htp]]].
  destruct (t_or_not TP e) as [[a ->]|Hne].
  - specialize (Htp a eq_refl). unfold tp_timer_step in Htp.
    destruct (s_p s) as [|ch|ch|dl0|keep|keep final|keep final|keep final dl0|keep w|] eqn:Ep;
      try (destruct Htp as [_ [Hx _]]; exfalso; eapply Hx; exact Hd).
    + destruct Htp as [Hl Hp]. rewrite Hp in Hd. destruct (is_closed _ _); [|discriminate].
      injection Hd as <-. rewrite Hl. lia.
    + destruct Htp as [Hl [Hp|Hp]]; rewrite Hp in Hd; [discriminate|]. injection Hd as <-. lia.
    + destruct Htp as [Hp|[Hp _]]; rewrite Hp in Hd; discriminate.
  - destruct (Hother Hne) as [Hp Hl]. rewrite Hp in Hd. specialize (B dl Hd). rewrite Hl. lia.
Qed.

Lemma reachable_tb cfg alloc oldest init t0 s : reachable cfg alloc oldest init t0 s -> tb cfg s.
Proof.
  intros [tr H]. apply (run_preserves cfg (fun s => inv1 s /\ tb cfg s)) in H.
  - exact (proj2 H).
  - intros s1 e s2 [II B] Hs. destruct (step_inv1 _ _ _ _ II Hs) as (s3 & [= <-] & II' & _).
    split; [exact II'|exact (step_tb _ _ _ _ II B Hs)].
  - split; [apply init_inv1|intros dl Hd; discriminate].
Qed.

(** during Ph0, under urgency, while the object's block is not released *)
Definition kb (cfg : config) (M L : N) (s : sys) : Prop :=
  (forall dl, s_p s = PTimer dl -> (dl <= M + c_interval cfg)%N)
  /\ (forall ch, s_p s = PIdle ch -> (s_now s <= M)%N)
  /\ (s_p s <> PNotify true -> s_last s = L).

Lemma step_kb cfg M L s e s' : ainv s -> (L <= M)%N -> kb cfg M L s ->
  synchronizedEpochs (s_pbl s) < length (epochSeeds (s_pbl s)) ->
  (forall d, e = ETick d -> p_internal cfg s = false) ->
  sync_starts s e = false ->
  step cfg s e = Some (Ok s') -> kb cfg M L s'.
Proof.
  intros A HLM [K1 [K2 K3]] Hpend Hurg Hns H. pose proof A as [[II _] [[_ Hheld] _]].
  destruct (step_timer_facts _ _ _ _ II H) as [Hmono [Hnow [Hother Htp]]].
  assert (forall ch, s_p s = PSelect ch \/ s_p s = PIdle ch -> is_closed (heap (s_pbl s)) ch = true) as Hclosed.
  { intros ch Hc. destruct (Hheld ch Hc) as [->|Hc']; [|exact Hc']. apply (inv_wakeup_put _ (proj1 II) Hpend). }
  destruct (t_or_not TP e) as [[a ->]|Hne].
  - specialize (Htp a eq_refl). unfold tp_timer_step in Htp. specialize (Hnow ltac:(intros d0 H0; discriminate H0)).
    destruct (s_p s) as [|ch|ch|dl0|keep|keep final|keep final|keep final dl0|keep w|] eqn:Ep;
      try (destruct Htp as [Hl [Hx1 Hx2]]; split; [intros dl Hd; exfalso; eapply Hx1; exact Hd|];
           split; [intros ch Hc; exfalso; eapply Hx2; exact Hc|]; intros _; rewrite Hl; apply K3; discriminate).
    + (* PSelect *)
      destruct Htp as [Hl Hp]. rewrite (Hclosed ch (or_introl eq_refl)) in Hp.
      split; [intros dl Hd; rewrite Hp in Hd; injection Hd as <-; rewrite (K3 ltac:(discriminate)); lia|].
      split; [intros c Hc; rewrite Hp in Hc; discriminate|]. intros _. rewrite Hl. apply K3. discriminate.
    + (* PIdle *)
      destruct Htp as [Hl Hp]. pose proof (K2 ch eq_refl) as Hn.
      split; [intros dl Hd; destruct Hp as [Hp|Hp]; rewrite Hp in Hd; [discriminate|]; injection Hd as <-; lia|].
      split; [intros c Hc; destruct Hp as [Hp|Hp]; rewrite Hp in Hc; discriminate|].
      intros _. rewrite Hl. apply K3. discriminate.
    + (* PTimer *)
      destruct Htp as [Hp|[Hp Hl]].
      * split; [intros dl Hd; rewrite Hp in Hd; discriminate|].
        split; [intros c Hc; rewrite Hp in Hc; discriminate|]. intros Hx. contradiction.
      * split; [intros dl Hd; rewrite Hp in Hd; discriminate|].
        split; [intros c Hc; rewrite Hp in Hc; discriminate|]. intros _. rewrite Hl. apply K3. discriminate.
    + (* PNotify: a sync start, excluded *)
      unfold sync_starts in Hns. rewrite act_tp, Ep in Hns. discriminate.
  - destruct (Hother Hne) as [Hp Hl]. unfold kb. rewrite Hp, Hl.
    split; [exact K1|]. split; [|exact K3].
    intros ch Hc. destruct e as [alloc| |index size|k blk seed|d| |t a];
      try (rewrite (Hnow ltac:(intros d0 H0; discriminate H0)); apply (K2 ch Hc)).
    exfalso. specialize (Hurg d eq_refl). unfold p_internal, p_in_io, p_in_timer, enabled in Hurg.
    rewrite Hc in Hurg. cbn [step] in Hurg. unfold pstep in Hurg. rewrite Hc in Hurg.
    rewrite (Hclosed ch (or_intror Hc)) in Hurg. cbn in Hurg. destruct (s_cancel s && _); discriminate.
Qed.

(** Props/C07.v: [upload_commit_bound] *)
Theorem commit_bound cfg alloc oldest init t0 s1 k blk seed s1' abs size off p' : forall tr s,
  reachable cfg alloc oldest init t0 s1 ->
  step cfg s1 (EFinalize k blk seed) = Some (Ok s1') ->
  nth_error (s_uploads s1) k = Some (Some (PutAt abs, size)) ->
  put_finalize (PutAt abs) blk size seed (s_pbl s1) = Ok (p', FinOk off) ->
  run cfg s1' tr = Some (Ok s) -> urgent cfg s1' tr = true ->
  scan cfg Ph0 s1' tr = Ph0 ->
  abs < totalReleased (s_pbl s) \/
  ((forall dl, s_p s = PTimer dl -> (dl <= N.max (s_now s1) (s_last s1) + c_interval cfg)%N)
   /\ (s_p s <> PNotify true -> s_last s = s_last s1)).
Proof.
  intros tr s R Hs1 Hu Hf Hrun Hurg Hscan.
  set (o := obj_of (s_pbl s1) p' abs (off + size)).
  set (M := N.max (s_now s1) (s_last s1)). set (L := s_last s1).
  pose proof (reachable_ainv _ _ _ _ _ _ R) as A1.
  pose proof (uinv_fin _ _ _ _ _ _ _ _ _ _ _ _ _ _ R Hs1 Hu Hf) as UI. fold o in UI.
  assert (kb cfg M L s1') as K1.
  { destruct (step_timer_facts _ _ _ _ (proj1 (proj1 A1)) Hs1) as [_ [Hnow [Hother _]]].
    destruct (Hother ltac:(intros a0 H0; discriminate H0)) as [Hp Hl].
    specialize (Hnow ltac:(intros d0 H0; discriminate H0)).
    pose proof (reachable_tb _ _ _ _ _ _ R) as B. unfold kb. rewrite Hp, Hl, Hnow.
    split; [intros dl Hd; apply (B dl Hd)|]. split; [intros ch _; unfold M; lia|]. intros _. reflexivity. }
  (* induction along the schedule *)
  assert (forall trq sa d sb, uinv o Ph0 d sa -> abs < totalReleased (s_pbl sa) \/ kb cfg M L sa ->
            run cfg sa trq = Some (Ok sb) -> urgent cfg sa trq = true -> scan cfg Ph0 sa trq = Ph0 ->
            abs < totalReleased (s_pbl sb) \/ kb cfg M L sb) as Hind.
  { induction trq as [|e trq IH]; intros sa d sb UIa Ka Hr Hur Hsc; cbn [run urgent scan] in Hr, Hur, Hsc.
    - injection Hr as <-. exact Ka.
    - destruct (step cfg sa e) as [[s2|]|] eqn:Es; try discriminate.
      apply andb_true_iff in Hur. destruct Hur as [Hu1 Hu2].
      assert (ph_next Ph0 sa e = Ph0) as Hph.
      { cbn [ph_next]. destruct (sync_starts sa e) eqn:Ess; [|reflexivity]. exfalso.
        cbn [ph_next] in Hsc. rewrite Ess in Hsc.
        assert (forall trm ph sx, ph <> Ph0 -> scan cfg ph sx trm <> Ph0) as Hmono.
        { induction trm as [|e1 trm IH1]; intros ph sx Hne; cbn; [exact Hne|].
          destruct (step cfg sx e1) as [[sy|]|]; try exact Hne. apply IH1.
          destruct ph as [| | |t|]; cbn [ph_next]; try congruence.
          - destruct (sync_completes sx e1); discriminate.
          - destruct (getstate_tid _); discriminate.
          - destruct (is_written _); [|destruct (is_wfail _ _ _)]; discriminate. }
        eapply Hmono; [|exact Hsc]. discriminate. }
      pose proof (step_uinv _ _ _ _ _ _ _ UIa Es) as UI2. rewrite Hph in UI2, Hsc.
      eapply IH; [exact UI2| |exact Hr|exact Hu2|exact Hsc].
      destruct (lt_dec abs (totalReleased (s_pbl sa))) as [Hrel|Hnr];
        [left; pose proof (step_released_mono _ _ _ _ Es); lia|right].
      destruct Ka as [Hrel|Ka]; [contradiction|].
      pose proof UIa as UIa0. destruct UIa as (Aa & _). eapply step_kb; [exact Aa|unfold M, L; lia|exact Ka| | | |exact Es].
      + eapply (uinv_pending o d); [exact UIa0|exact Hnr].
      + intros d0 ->. apply negb_true_iff in Hu1. exact Hu1.
      + cbn [ph_next] in Hph. destruct (sync_starts sa e); [discriminate|reflexivity]. }
  destruct (Hind _ _ _ _ UI (or_intror K1) Hrun Hurg Hscan) as [Hrel|[K1' [_ K3']]]; [left; exact Hrel|right].
  split; [exact K1'|exact K3'].
Qed.
