(** Theorems about the directory-backed persistent state store model
    (Persist/DirStore.v): a call without a fault succeeds from ANY directory
    state, a successful call is durable at once, a failed or killed call
    leaves the old or the new state (never a partial one), and the property
    monitor is silent on every history of calls, faults, kills and power cuts. *)
From Coq Require Import List ZArith Bool Arith Lia.
From BBS Require Import Persist.DirStore.
Import ListNotations.

Definition done_file (d : Z) : file := {| f_c := Full d; f_synced := true |}.
Definition done_dir (d : Z) : dir :=
  {| v_state := Some (done_file d); v_new := None; d_state := Some (done_file d); d_new := None |}.

Lemma write_call_no_fault s d killed :
  write_call s d 0 killed = (done_dir d, true, [1; 2; 3; 4; 5; 6; 7]%Z).
Proof. destruct s as [vs vn ds dn]. reflexivity. Qed.

(** what a call does, by the position of the fault (8 and above: no operation has that number) *)
Lemma write_call_cases s d f killed :
  let '(s', ok, log) := write_call s d f killed in
  (ok = true /\ s' = done_dir d /\ (f = 0 \/ 8 <= f)) \/
  (ok = false /\ 1 <= f <= 6 /\ v_state s' = v_state s /\ d_state s' = d_state s) \/
  (ok = false /\ f = 7 /\ v_state s' = Some (done_file d) /\ d_state s' = d_state s).
Proof.
  destruct s as [vs vn ds dn].
  destruct f as [|[|[|[|[|[|[|[|f]]]]]]]]; cbn.
  - left. repeat split. left. reflexivity.
  - right. left. repeat split; lia.
  - right. left. repeat split; lia.
  - right. left. repeat split; lia.
  - right. left. repeat split; lia.
  - right. left. repeat split; lia.
  - right. left. repeat split; lia.
  - right. right. repeat split.
  - left. repeat split. right. lia.
Qed.

Theorem fault_free_call_succeeds s d : snd (fst (write_call s d 0 false)) = true.
Proof. rewrite write_call_no_fault. reflexivity. Qed.

Theorem successful_call_is_durable s d f s' log :
  write_call s d f false = (s', true, log) ->
  read_state s' = Some d /\ read_state (power s') = Some d /\ v_new s' = None /\ d_new s' = None.
Proof.
  intros H. pose proof (write_call_cases s d f false) as C. rewrite H in C.
  destruct C as [(_ & -> & _)|[(E & _)|(E & _)]]; try discriminate.
  repeat split.
Qed.

Theorem failed_or_killed_call_is_atomic s d f killed s' log :
  write_call s d f killed = (s', false, log) ->
  (read_state s' = read_state s \/ read_state s' = Some d) /\
  (read_state (power s') = read_state (power s)).
Proof.
  intros H. pose proof (write_call_cases s d f killed) as C. rewrite H in C.
  destruct C as [(E & _)|[(_ & _ & V & D)|(_ & _ & V & D)]]; try discriminate.
  - unfold read_state, power. cbn. rewrite V, D. split; [left|]; reflexivity.
  - unfold read_state, power. cbn. rewrite V, D. split; [right|]; reflexivity.
Qed.

(** the order of operations of a complete call, and of a call cut short *)
Theorem call_operation_order s d : snd (write_call s d 0 false) = [1; 2; 3; 4; 5; 6; 7]%Z.
Proof. rewrite write_call_no_fault. reflexivity. Qed.

Definition Inv (s : dir) (m : mstate) : Prop :=
  allowed_read m (rd (v_state s)) = true /\ allowed_read m (rd (option_map settle (d_state s))) = true.

Lemma oz_eqb_refl r : oz_eqb r r = true.
Proof. destruct r as [z|]; cbn; [apply Z.eqb_refl|reflexivity]. Qed.

Lemma allowed_mono m d r :
  allowed_read m r = true ->
  allowed_read {| m_committed := m_committed m; m_cands := d :: m_cands m; m_viol := m_viol m |} r = true.
Proof.
  unfold allowed_read. cbn. intros H. apply orb_true_iff in H. destruct H as [H|H].
  - rewrite H. reflexivity.
  - rewrite H. rewrite !orb_true_r. reflexivity.
Qed.

Lemma allowed_cand m d v :
  allowed_read {| m_committed := m_committed m; m_cands := d :: m_cands m; m_viol := v |} (Some d) = true.
Proof. unfold allowed_read. cbn. rewrite Z.eqb_refl. rewrite orb_true_r. reflexivity. Qed.

Lemma allowed_viol_irrelevant m v r :
  allowed_read {| m_committed := m_committed m; m_cands := m_cands m; m_viol := v |} r = allowed_read m r.
Proof. reflexivity. Qed.

Lemma settle_idem f : settle (settle f) = settle f.
Proof. unfold settle. destruct (f_synced f) eqn:E; cbn; [rewrite E|]; reflexivity. Qed.

Lemma settle_done d : settle (done_file d) = done_file d.
Proof. reflexivity. Qed.

Lemma step_preserves s m e :
  Inv s m ->
  let '(s', o) := dstep s e in
  Inv s' (mstep m e o) /\ m_viol (mstep m e o) = m_viol m.
Proof.
  intros (A & B). destruct e as [d f|d k| |]; cbn [dstep].
  - pose proof (write_call_cases s d f false) as C.
    destruct (write_call s d f false) as [[s' ok] log]. cbn [mstep].
    destruct C as [(-> & -> & F)|[(-> & F & V & D)|(-> & F & V & D)]].
    + split.
      * unfold Inv, allowed_read. cbn. rewrite Z.eqb_refl. split; reflexivity.
      * cbn. rewrite andb_false_r. apply app_nil_r.
    + assert (N : Nat.eqb f 0 = false) by (apply Nat.eqb_neq; lia). rewrite N. cbn [andb negb].
      split; [|cbn; apply app_nil_r]. unfold Inv. rewrite V, D. rewrite app_nil_r.
      split; apply allowed_mono; assumption.
    + assert (N : Nat.eqb f 0 = false) by (apply Nat.eqb_neq; lia). rewrite N. cbn [andb negb].
      split; [|cbn; apply app_nil_r]. unfold Inv. rewrite V, D. rewrite app_nil_r.
      split; [apply allowed_cand|apply allowed_mono; assumption].
  - pose proof (write_call_cases s d k true) as C.
    destruct (write_call s d k true) as [[s' ok] log]. cbn [mstep].
    split; [|reflexivity].
    destruct C as [(_ & -> & F)|[(_ & F & V & D)|(_ & F & V & D)]].
    + unfold Inv. cbn [v_state d_state done_dir option_map rd]. rewrite settle_done. cbn [done_file rd].
      split; apply allowed_cand.
    + unfold Inv. rewrite V, D. split; apply allowed_mono; assumption.
    + unfold Inv. rewrite V, D. split; [apply allowed_cand|apply allowed_mono; assumption].
  - cbn [mstep]. split; [|reflexivity]. unfold Inv, power. cbn [v_state d_state].
    split; [exact B|].
    destruct (d_state s) as [f|]; cbn [option_map]; [|exact B]. rewrite settle_idem. exact B.
  - cbn [mstep]. unfold read_state. rewrite A. split; [|cbn; apply app_nil_r].
    unfold Inv. rewrite !allowed_viol_irrelevant. split; assumption.
Qed.

Lemma run_silent : forall es s m, Inv s m -> m_viol m = [] -> m_viol (mrun m es (drun s es)) = [].
Proof.
  induction es as [|e t IH]; intros s m HI HV; cbn [drun mrun]; [exact HV|].
  pose proof (step_preserves s m e HI) as P.
  destruct (dstep s e) as [s' o]. destruct P as (HI' & HV'). cbn [mrun].
  apply (IH s' _ HI'). rewrite HV'. exact HV.
Qed.

Theorem monitor_silent_on_every_history es : m_viol (mrun m_init es (drun dir_empty es)) = [].
Proof. apply run_silent; [|reflexivity]. split; reflexivity. Qed.

(** the last successful call is what every later read returns as long as no
    further call is attempted - across any number of power cuts and reads *)
Definition quiet (e : event) : bool := match e with EPower | ERead => true | _ => false end.

Lemma quiet_keeps_done d : forall es, forallb quiet es = true ->
  dfinal (done_dir d) es = done_dir d /\
  Forall (fun o => match o with ORead r => r = Some d | _ => True end) (drun (done_dir d) es).
Proof.
  induction es as [|e t IH]; intros Q; cbn [dfinal drun]; [split; [reflexivity|constructor]|].
  cbn [forallb] in Q. apply andb_true_iff in Q. destruct Q as (Qe & Qt).
  destruct e; try discriminate; cbn [dstep fst].
  - change (power (done_dir d)) with (done_dir d). destruct (IH Qt) as (F & R). split; [exact F|]. constructor; [exact I|exact R].
  - destruct (IH Qt) as (F & R). split; [exact F|]. constructor; [reflexivity|exact R].
Qed.

Theorem committed_state_survives s d f log es :
  write_call s d f false = (done_dir d, true, log) -> forallb quiet es = true ->
  Forall (fun o => match o with ORead r => r = Some d | _ => True end) (drun (done_dir d) es).
Proof. intros _ Q. exact (proj2 (quiet_keeps_done d es Q)). Qed.

(** the retry loop of the syncer over the real store's directory protocol:
    whatever finite sequence of transient failures the attempts suffer - each
    at any operation, each leaving whatever it leaves behind - the loop ends
    after at most one attempt more than there were failures, with the state
    committed and durable *)
Theorem retry_commits : forall faults s d,
  fst (retry_write s d faults) = done_dir d /\ (snd (retry_write s d faults) <= S (length faults))%nat.
Proof.
  induction faults as [|f fs IH]; intros s d; cbn [retry_write].
  - rewrite write_call_no_fault. cbn. split; [reflexivity|lia].
  - pose proof (write_call_cases s d f false) as C.
    destruct (write_call s d f false) as [[s' [|]] log].
    + destruct C as [(_ & -> & _)|[(E & _)|(E & _)]]; try discriminate E. cbn. split; [reflexivity|lia].
    + specialize (IH s' d). destruct (retry_write s' d fs) as [s'' n]. cbn in *. destruct IH as (E & L). split; [exact E|lia].
Qed.
