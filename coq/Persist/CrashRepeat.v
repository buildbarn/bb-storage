(** Persist/CrashRepeat.v — REPEATED crashes: the durability half of crash
    safety for arbitrarily many lives.

    A history is a list of lives; the first starts on empty media, every later
    one on the media that the crash of the previous one left
    ([crash_of base c n ch]: ANY reachable state [c] of that life, ANY prefix
    [n] of its I/O log, ANY loss choice [ch]) — so crashes during recovery,
    immediately after the restart, before the first state write of a life etc.
    are all included.  The upload tags of CrashLts.v ([r_up], the tag of
    [IoData]) are indices into the upload table of ONE life; here an upload is
    identified by (life, index) ([backed]).

    [repeated_crash_durable]: after any number of crash + restart rounds, a
    record that resolves on the final media designates the key / offset / size
    of a COMPLETED upload of some life of the history (the current or an
    earlier one), all of whose data writes lay below the durable frontier of
    the log prefix at which that life crashed — so they are part of the data
    medium of every later life ([crash_medium] keeps [m_data base]).

    Ingredients: the epoch invariant of CrashEpochProofs.v (any
    base), the state-directory invariant of CrashReuseProofs.v for a directory
    that starts with a state file and a left-over state.new ([DI],
    [dir_survivor_any]: the surviving state file is the base's state file or
    the payload of a state write of the prefix — never the left-over
    state.new, never torn content), and the medium invariant [SafeD].
    Stdlib only; no axioms. *)
From Coq Require Import List NArith ZArith Bool Arith Lia.
From BBS Require Import Persist.PBL Persist.PBLProofs Persist.Syncer Persist.SyncerProofs
                        Persist.Crash Persist.CrashLts.
From BBS Require Import Persist.CrashReuseProofs.
From BBS Require Import Persist.CrashEpochProofs.
Import ListNotations.

Local Notation log := (list (io irec)).

(** record [r] designates upload [r_up r] of the life that ended in state [c] and crashed at
    log prefix [n]: completed, same key / offset / size, all its data durable at the crash *)
Definition durable_native (c : cst) (n : nat) (r : irec) : Prop :=
  exists up, nth_error (cs_ups c) (r_up r) = Some up /\ up_key up = r_key r /\ up_off up = r_off r /\
    up_size up = r_size r /\ up_state up = UpFin true /\ up_issued up = up_size up /\
    (forall q l lo hi, nth_error (cs_log c) q = Some (IoData (r_up r) l lo hi) ->
       q < durable_upto (firstn n (cs_log c))).

Definition rseeds (g : geo) (m : medium irec) : list N :=
  epochSeeds (fst (restart (geom g) (m_state m))).

Lemma crash_index_cases (base : medium irec) (L : log) n ch slot r :
  In (slot, r) (m_index (crash_medium base (firstn n L) ch)) ->
  In (slot, r) (m_index base) \/ exists pos, pos < n /\ nth_error L pos = Some (IoIndex slot r).
Proof.
  intros Hin. rewrite crash_medium_index in Hin. apply in_app_iff in Hin.
  destruct Hin as [Hin|Hin]; [left; exact Hin|right].
  apply select_incl in Hin. apply index_writes_in in Hin. apply In_nth_error in Hin.
  destruct Hin as [pos Hpos]. apply nth_firstn in Hpos. exists pos. exact Hpos.
Qed.

Lemma crash_state_cases (base : medium irec) (L : log) n ch : shaped L ->
  m_state (crash_medium base (firstn n L) ch) = None \/
  (m_state (crash_medium base (firstn n L) ch) = m_state base /\ dlw (firstn n L) = None) \/
  exists q x, q < n /\ nth_error L q = Some (IoWriteNew x) /\
    m_state (crash_medium base (firstn n L) ch) = Some x /\ forall lw, dlw (firstn n L) = Some lw -> lw <= q.
Proof.
  intros Sh. destruct (m_state (crash_medium base (firstn n L) ch)) as [x|] eqn:Ex; [right|left; reflexivity].
  destruct (dir_survivor_any _ _ _ _ (shaped_firstn _ n Sh) Ex) as [[Eb Hno]|(q & Hq & Hlw)].
  - left. split; [symmetry; exact Eb|exact Hno].
  - right. apply nth_firstn in Hq. destruct Hq as [Hqn Hq]. exists q, x. auto.
Qed.

Theorem life_crash (Back : irec -> Prop) g cfg base t0 c :
  (forall r r0, r_key r = r_key r0 -> r_off r = r_off r0 -> r_size r = r_size r0 -> Back r0 -> Back r) ->
  NoDup (rseeds g base) ->
  (forall slot r, In (slot, r) (m_index base) -> In (r_seed r) (rseeds g base) -> Back r) ->
  creach g cfg base t0 c ->
  forall n ch,
    NoDup (rseeds g (crash_of base c n ch)) /\
    forall slot r, In (slot, r) (m_index (crash_of base c n ch)) ->
      In (r_seed r) (rseeds g (crash_of base c n ch)) -> Back r \/ durable_native c n r.
Proof.
  intros Hsame Hnd Hback R n ch.
  set (old := map (fun e : nat * irec => r_seed (snd e)) (m_index base)).
  assert (HI : rcinv Back old (rseeds g base) c).
  { destruct R as [tr Htr]. eapply crun_rcinv; [exact Hsame| |exact Htr].
    apply cinit_rcinv; auto. }
  destruct HI as [[HS [HU [HL [HP HF]]]] Ho].
  destruct (creach_shaped _ _ _ _ _ R) as [Sh _].
  unfold rseeds, crash_of in *.
  pose proof (crash_index_cases base (cs_log c) n ch) as Hidx.
  destruct (crash_state_cases base _ n ch Sh) as [Ex|[[Ex _]|(q & [st h] & Hqn & Hq & Ex & _)]]; rewrite Ex.
  - cbn. split; [constructor|]. intros slot r _ Hin. contradiction.
  - (* the state file the life started with survived *)
    split; [exact Hnd|].
    intros slot r Hin Hs. destruct (Hidx _ _ Hin) as [Hb|(pos & Hp & Hpos)]; [left; eauto|].
    exfalso. eapply (li_N _ _ _ _ _ _ _ _ _ _ HL); eauto.
  - (* a state file written in this life survived *)
    pose proof (restart_seeds_prefix (geom g) (Some (st, h))) as [rest Hrest]. cbn [fst] in Hrest.
    pose proof (li_D _ _ _ _ _ _ _ _ _ _ HL _ _ _ Hq) as Hndst.
    split; [rewrite Hrest in Hndst; eapply NoDup_app_l; exact Hndst|].
    intros slot r Hin Hs.
    assert (Hs' : In (r_seed r) (st_seeds st)) by (rewrite Hrest; apply in_app_iff; left; exact Hs).
    destruct (li_W _ _ _ _ _ _ _ _ _ _ HL _ _ _ _ Hq Hs') as [Hns HW].
    destruct (Hidx _ _ Hin) as [Hb|(pos & Hp & Hpos)].
    + left. apply (Hback _ _ Hb). destruct HP as [_ [_ HP3]]. apply HP3.
      * eapply A.in_firstn; eauto.
      * unfold old. apply in_map_iff. exists (slot, r). auto.
    + destruct (li_R _ _ _ _ _ _ _ _ _ _ HL _ _ _ Hpos) as [[Hok Hdata]|Hb]; [right|left; exact Hb].
      specialize (HW _ _ _ Hpos eq_refl).
      destruct (firstn_prefix (cs_log c) q n) as [l' El]; [lia|].
      pose proof (durable_mono (firstn q (cs_log c)) l') as Hm. rewrite <- El in Hm.
      destruct Hok as [up [U1 [U2 [U3 [U4 [U5 U6]]]]]].
      exists up. repeat split; auto. intros q' l lo hi Hq'. specialize (Hdata _ _ _ _ Hq'). lia.
Qed.

Record life := mkLife {
  lf_cfg : config; lf_t0 : N;
  lf_c : cst;          (* the state the life had reached *)
  lf_n : nat;          (* the crash: a prefix of its I/O log *)
  lf_ch : choice       (* and a loss choice *)
}.

(** [lives g H m]: [H] is a sequence of lives (oldest first), the first started on empty media,
    each later one on the media left by the crash of its predecessor; [m] = the media after the
    crash of the last one *)
Inductive lives (g : geo) : list life -> medium irec -> Prop :=
| lives_nil : lives g [] medium_empty
| lives_snoc H base lf :
    lives g H base -> creach g (lf_cfg lf) base (lf_t0 lf) (lf_c lf) ->
    lives g (H ++ [lf]) (crash_of base (lf_c lf) (lf_n lf) (lf_ch lf)).

(** upload [k] of life [lf] is completed, has the key / offset / size of [r], and all its data
    writes were durable when that life crashed *)
Definition durable_upload (lf : life) (k : nat) (r : irec) : Prop :=
  exists up, nth_error (cs_ups (lf_c lf)) k = Some up /\ up_key up = r_key r /\ up_off up = r_off r /\
    up_size up = r_size r /\ up_state up = UpFin true /\ up_issued up = up_size up /\
    (forall q l lo hi, nth_error (cs_log (lf_c lf)) q = Some (IoData k l lo hi) ->
       q < durable_upto (firstn (lf_n lf) (cs_log (lf_c lf)))).

(** … of some life of the history: uploads are identified by (life, index) *)
Definition backed (H : list life) (r : irec) : Prop :=
  exists j lf k, nth_error H j = Some lf /\ durable_upload lf k r.

Lemma backed_same H r r0 : r_key r = r_key r0 -> r_off r = r_off r0 -> r_size r = r_size r0 ->
  backed H r0 -> backed H r.
Proof.
  intros E1 E2 E3 (j & lf & k & Hj & up & U). exists j, lf, k. split; [exact Hj|]. exists up.
  rewrite E1, E2, E3. exact U.
Qed.

Lemma backed_snoc H lf r : backed H r -> backed (H ++ [lf]) r.
Proof.
  intros (j & lf0 & k & Hj & U). exists j, lf0, k. split; [apply nth_snoc_old; exact Hj|exact U].
Qed.

(** the medium invariant: the restart restores duplicate-free seeds, and every index record
    whose seed is restored is backed *)
Definition SafeD (g : geo) (H : list life) (m : medium irec) : Prop :=
  NoDup (rseeds g m) /\
  forall slot r, In (slot, r) (m_index m) -> In (r_seed r) (rseeds g m) -> backed H r.

Theorem SafeD_empty g : SafeD g [] medium_empty.
Proof. split; [constructor|]. intros slot r []. Qed.

(** closed under a life and a crash, from ANY medium that satisfies it *)
Theorem SafeD_step g H base lf : SafeD g H base ->
  creach g (lf_cfg lf) base (lf_t0 lf) (lf_c lf) ->
  SafeD g (H ++ [lf]) (crash_of base (lf_c lf) (lf_n lf) (lf_ch lf)).
Proof.
  intros [S1 S2] R.
  destruct (life_crash (backed H) g _ _ _ _ (backed_same H) S1 S2 R (lf_n lf) (lf_ch lf)) as [T1 T2].
  split; [exact T1|]. intros slot r Hin Hs. destruct (T2 _ _ Hin Hs) as [Hb|Hn].
  - apply backed_snoc. exact Hb.
  - exists (length H), lf, (r_up r). split; [apply nth_snoc_new|exact Hn].
Qed.

Theorem lives_SafeD g H m : lives g H m -> SafeD g H m.
Proof.
  induction 1 as [|H base lf HL IH R]; [apply SafeD_empty|]. apply SafeD_step; assumption.
Qed.

Theorem repeated_crash_durable g H m : lives g H m ->
  forall slot r i, resolves g m slot r i -> backed H r.
Proof.
  intros HL slot r i [H1 H2]. destruct (lives_SafeD _ _ _ HL) as [_ S].
  apply slot_get_in in H1. destruct H1 as [H1|[slot' H1]]; [discriminate|].
  apply resolve_ref_seed in H2. apply (S slot' r H1). exact H2.
Qed.

(** the seeds restored at every restart of a history are pairwise distinct *)
Theorem repeated_crash_seeds_nodup g H m : lives g H m -> NoDup (rseeds g m).
Proof. intros HL. apply (proj1 (lives_SafeD _ _ _ HL)). Qed.

(** a record written in the CURRENT life never resolves through the state file the life started
    with (its seed was created after the restart): if the base state file survives, only base
    records resolve *)
Theorem new_record_needs_new_state g cfg base t0 c : NoDup (rseeds g base) ->
  creach g cfg base t0 c ->
  forall pos slot r, nth_error (cs_log c) pos = Some (IoIndex slot r) -> ~ In (r_seed r) (rseeds g base).
Proof.
  intros Hnd [tr Htr] pos slot r Hpos.
  assert (HI : rcinv (fun _ => True) (map (fun e : nat * irec => r_seed (snd e)) (m_index base)) (rseeds g base) c).
  { eapply crun_rcinv; [auto| |exact Htr]. apply cinit_rcinv; auto. }
  destruct HI as [[_ [_ [HL _]]] _]. eapply (li_N _ _ _ _ _ _ _ _ _ _ HL); eauto.
Qed.

Print Assumptions repeated_crash_durable.
Print Assumptions SafeD_step.
Print Assumptions dir_survivor_any.
