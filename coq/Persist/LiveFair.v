(** Persist/LiveFair.v — liveness in the bounded "enabledness + rank" form:
    fair extensions (only steps of the two syncer loops with successful I/O
    answers, and clock advances that let timers fire), and the release loop:
    from every reachable state with a block awaiting release there is a fair
    extension of at most 10 events after which every such block has been
    Release()d. *)
From Coq Require Import List NArith ZArith Bool Arith Lia.
From BBS Require Import Persist.PBL Persist.PBLProofs Persist.Syncer Persist.SyncerProofs
  Persist.LiveActs Persist.LiveRelease.
Import ListNotations.

(** events of a fair extension: a loop step whose I/O call (if any) succeeds /
    whose timer (if any) fires, or the clock advancing *)
Definition fair_event (e : event) : bool :=
  match e with
  | EStep _ a => a_ok a
  | ETick _ => true
  | _ => false
  end.
Definition fair (tr : list event) : bool := forallb fair_event tr.

Lemma fair_app a b : fair a = true -> fair b = true -> fair (a ++ b) = true.
Proof. unfold fair. rewrite forallb_app. intros -> ->. reflexivity. Qed.

Definition ok0 : ans := mkAns true 0.

Definition ainv (s : sys) : Prop := linv s /\ inv2 s /\ inv3 s.

Lemma step_ainv cfg s e s' : ainv s -> step cfg s e = Some (Ok s') -> ainv s'.
Proof.
  intros [L [I2 I3]] H. split; [eapply step_linv; eauto|]. split.
  - eapply step_inv2; eauto. exact (proj1 L).
  - eapply step_inv3; eauto.
Qed.

Lemma run_ainv cfg tr : forall s s', ainv s -> run cfg s tr = Some (Ok s') -> ainv s'.
Proof. apply run_preserves, step_ainv. Qed.

Lemma reachable_ainv cfg alloc oldest init t0 s : reachable cfg alloc oldest init t0 s -> ainv s.
Proof.
  intros R. destruct (reachable_inv_all _ _ _ _ _ _ R) as [_ [I2 [I3 _]]].
  split; [eapply reachable_linv; eauto|]. auto.
Qed.

Lemma ainv_pbl s : ainv s -> pbl_inv (s_pbl s).
Proof. intros [[[I _] _] _]. exact I. Qed.

Definition rel_after (p p' : pbl) : Prop :=
  toRelease p' = skipn (releasing p) (toRelease p)
  /\ releasedLog p' = releasedLog p ++ firstn (releasing p) (toRelease p).

Lemma finish_write cfg t w s : pbl_inv (s_pbl s) -> wpc_of t s = Some w -> holds w = true ->
  exists ext s', fair ext = true /\ length ext <= 3 /\ run cfg s ext = Some (Ok s') /\ s_store s' = None
    /\ (match w with
        | WGetState => toRelease (s_pbl s') = [] /\
                       releasedLog (s_pbl s') = releasedLog (s_pbl s) ++ toRelease (s_pbl s)
        | _ => rel_after (s_pbl s) (s_pbl s') end).
Proof.
  intros I Ew Hh.
  assert (forall s1, wpc_of t s1 = Some WWritten -> pbl_inv (s_pbl s1) ->
            exists s', run cfg s1 [EStep t ok0] = Some (Ok s') /\ s_store s' = None
              /\ rel_after (s_pbl s1) (s_pbl s')) as Hwritten.
  { intros s1 E1 I1. destruct (notify_state_written_inv _ I1) as [p' [Hn [_ [Hl [Ht _]]]]].
    destruct (wstep_own cfg t s1 WWritten ok0 _ _ E1 ltac:(cbn [wstep]; rewrite Hn; reflexivity))
      as (s' & Hs & _ & Hp & Hst).
    exists s'. split; [apply run1; exact Hs|]. split; [exact Hst|]. rewrite Hp. split; assumption. }
  assert (forall s1 st, wpc_of t s1 = Some (WWriting st) -> pbl_inv (s_pbl s1) ->
            exists s', run cfg s1 [EStep t ok0; EStep t ok0] = Some (Ok s') /\ s_store s' = None
              /\ rel_after (s_pbl s1) (s_pbl s')) as Hwriting.
  { intros s1 st E1 I1. destruct (wstep_own cfg t s1 (WWriting st) ok0 _ _ E1 eq_refl) as (s2 & Hs & E2 & Hp & _).
    destruct (Hwritten s2 E2 ltac:(rewrite Hp; exact I1)) as (s' & Hr & Hrest). rewrite Hp in Hrest.
    exists s'. split; [|exact Hrest]. cbn [run]. rewrite Hs. exact Hr. }
  destruct w; try discriminate.
  - destruct (get_persistent_state_inv _ I) as [p1 [st [Hg [I1 [Hrl [_ [Htr [Hlog _]]]]]]]].
    destruct (wstep_own cfg t s WGetState ok0 _ _ Ew ltac:(cbn [wstep]; rewrite Hg; reflexivity))
      as (s2 & Hs & E2 & Hp & _). cbn [s_pbl with_pbl] in Hp.
    destruct (Hwriting s2 st E2 ltac:(rewrite Hp; exact I1)) as (s' & Hr & Hst & R1 & R2). rewrite Hp in R1, R2.
    exists [EStep t ok0; EStep t ok0; EStep t ok0], s'. split; [reflexivity|]. split; [cbn; lia|].
    split; [cbn [run]; rewrite Hs; exact Hr|]. split; [exact Hst|]. split.
    + rewrite R1, Hrl, Htr. apply skipn_all.
    + rewrite R2, Hrl, Htr, Hlog, firstn_all. reflexivity.
  - destruct (Hwriting s st Ew I) as (s' & Hr & Hrest).
    exists [EStep t ok0; EStep t ok0], s'. split; [reflexivity|]. split; [cbn; lia|]. split; [exact Hr|exact Hrest].
  - destruct (Hwritten s Ew I) as (s' & Hr & Hrest).
    exists [EStep t ok0], s'. split; [reflexivity|]. split; [cbn; lia|]. split; [exact Hr|exact Hrest].
Qed.

Lemma holder_cases s : inv3 s -> s_store s = None \/ exists t w, wpc_of t s = Some w /\ holds w = true.
Proof.
  intros [Hst _]. destruct (r_holds s) eqn:Hr.
  - right. unfold r_holds in Hr. destruct (s_r s) as [| |w] eqn:Er; try discriminate.
    exists TR, w. unfold wpc_of. rewrite Er. auto.
  - destruct (p_holds s) eqn:Hp; [right|left; exact Hst].
    unfold p_holds in Hp. destruct (s_p s) as [| | | | | | | |k w|] eqn:Ep; try discriminate.
    exists TP, w. unfold wpc_of. rewrite Ep. auto.
Qed.

Lemma release_cycle cfg s : ainv s -> s_store s = None -> toRelease (s_pbl s) <> [] ->
  exists ext s', fair ext = true /\ length ext <= 7 /\ run cfg s ext = Some (Ok s')
    /\ toRelease (s_pbl s') = [] /\ releasedLog (s_pbl s') = releasedLog (s_pbl s) ++ toRelease (s_pbl s).
Proof.
  intros A Hst Hne. pose proof (ainv_pbl _ A) as I.
  assert (forall s1, s_r s1 = RW WAcquire -> s_store s1 = None -> pbl_inv (s_pbl s1) ->
            exists ext s', fair ext = true /\ length ext <= 4 /\ run cfg s1 ext = Some (Ok s')
              /\ toRelease (s_pbl s') = [] /\ releasedLog (s_pbl s') = releasedLog (s_pbl s1) ++ toRelease (s_pbl s1))
    as Hacq.
  { intros s1 E1 S1 I1.
    destruct (wstep_own cfg TR s1 WAcquire ok0 _ _ ltac:(unfold wpc_of; rewrite E1; reflexivity)
                ltac:(cbn [wstep]; rewrite S1; reflexivity)) as (s2 & Hs & E2 & Hp & _). cbn [s_pbl with_store] in Hp.
    destruct (finish_write cfg TR WGetState s2 ltac:(rewrite Hp; exact I1) E2 eq_refl)
      as (ext & s' & Hf & Hl & Hr & _ & Heff). rewrite Hp in Heff.
    exists (EStep TR ok0 :: ext), s'. split; [exact Hf|]. split; [cbn; lia|]. split; [|exact Heff].
    cbn [run]. rewrite Hs. exact Hr. }
  destruct A as [L [[Hheld _] [I3a _]]].
  assert (r_holds s = false) as Hnh by (rewrite Hst in I3a; destruct (r_holds s); [discriminate|reflexivity]).
  unfold r_holds in Hnh.
  destruct (s_r s) as [|c|[| | | |deadline]] eqn:Er; try discriminate Hnh.
  - (* RStart *)
    destruct (Hacq (with_r (with_r s (RWait (get_release_wakeup (s_pbl s)))) (RW WAcquire)) eq_refl Hst I)
      as [ext [s' [Hf [Hlen [Hr Hrest]]]]].
    exists (EStep TR ok0 :: EStep TR ok0 :: ext), s'. split; [cbn; exact Hf|]. split; [cbn; lia|].
    split; [|exact Hrest].
    cbn [run step]. unfold rstep at 1. rewrite Er.
    unfold rstep at 1. cbn [s_r with_r s_pbl].
    pose proof (inv_wakeup_release _ I Hne) as Hc. unfold release_chan_closed in Hc. rewrite Hc. exact Hr.
  - (* RWait c *)
    assert (is_closed (heap (s_pbl s)) c = true) as Hc.
    { destruct (Hheld c Er) as [->|Hc]; [|exact Hc]. apply (inv_wakeup_release _ I Hne). }
    destruct (Hacq (with_r s (RW WAcquire)) eq_refl Hst I) as [ext [s' [Hf [Hlen [Hr Hrest]]]]].
    exists (EStep TR ok0 :: ext), s'. split; [cbn; exact Hf|]. split; [cbn; lia|]. split; [|exact Hrest].
    cbn [run step]. unfold rstep at 1. rewrite Er, Hc. exact Hr.
  - destruct (Hacq s Er Hst I) as [ext [s' [Hf [Hlen [Hr Hrest]]]]].
    exists ext, s'. split; [exact Hf|]. split; [lia|]. split; [exact Hr|exact Hrest].
  - (* WSleep *)
    destruct (Hacq (with_r (with_now s (s_now s + deadline)) (RW WAcquire)) eq_refl Hst I)
      as [ext [s' [Hf [Hlen [Hr Hrest]]]]].
    exists (ETick deadline :: EStep TR ok0 :: ext), s'. split; [cbn; exact Hf|]. split; [cbn; lia|].
    split; [|exact Hrest].
    cbn [run step]. unfold rstep at 1. cbn [s_r with_now]. rewrite Er. cbn [wstep s_now with_now].
    destruct (N.leb_spec deadline (s_now s + deadline)) as [_|Hlt]; [exact Hr|lia].
Qed.

(** Props/C07.v: [every_release_eventually_committed] *)
Theorem release_eventually cfg s : ainv s -> toRelease (s_pbl s) <> [] ->
  exists ext s', fair ext = true /\ length ext <= 10 /\ run cfg s ext = Some (Ok s')
    /\ toRelease (s_pbl s') = [] /\ releasedLog (s_pbl s') = releasedLog (s_pbl s) ++ toRelease (s_pbl s).
Proof.
  intros A Hne.
  (* phase A: whoever holds storeLock finishes its write *)
  assert (exists extA sA, fair extA = true /\ length extA <= 3 /\ run cfg s extA = Some (Ok sA)
            /\ s_store sA = None
            /\ ((toRelease (s_pbl sA) = [] /\
                 releasedLog (s_pbl sA) = releasedLog (s_pbl s) ++ toRelease (s_pbl s))
                \/ rel_after (s_pbl s) (s_pbl sA) \/ s_pbl sA = s_pbl s)) as [extA [sA [HfA [HlA [HrA [HsA HeffA]]]]]].
  { destruct (holder_cases s (proj2 (proj2 A))) as [Hst|(t & w & Hw & Hh)].
    - exists [], s. split; [reflexivity|]. split; [cbn; lia|]. split; [reflexivity|]. auto.
    - destruct (finish_write cfg t w s (ainv_pbl _ A) Hw Hh) as (ext & s' & Hf & Hl & Hrun & Hst & Heff).
      exists ext, s'. splits; auto. destruct w; auto. }
  pose proof (run_ainv _ _ _ _ A HrA) as AA.
  destruct (toRelease (s_pbl sA)) as [|x r] eqn:EtA.
  - exists extA, sA. split; [exact HfA|]. split; [lia|]. split; [exact HrA|]. split; [exact EtA|].
    destruct HeffA as [[_ Hl]|[[Ht Hl]|Hp]]; [exact Hl| |exfalso; rewrite Hp in EtA; congruence].
    rewrite Hl. f_equal. rewrite EtA in Ht.
    rewrite <- (firstn_skipn (releasing (s_pbl s)) (toRelease (s_pbl s))) at 2. rewrite <- Ht, app_nil_r. reflexivity.
  - destruct (release_cycle cfg sA AA HsA ltac:(rewrite EtA; discriminate)) as [extB [s' [HfB [HlB [HrB [Ht' Hl']]]]]].
    exists (extA ++ extB), s'. split; [apply fair_app; assumption|]. split; [rewrite app_length; lia|].
    split; [rewrite (run_app _ _ _ _ _ HrA); exact HrB|]. split; [exact Ht'|].
    rewrite Hl'. destruct HeffA as [[Hc _]|[[Ht Hl]|Hp]]; [congruence| |rewrite Hp; reflexivity].
    rewrite Hl, Ht, <- app_assoc, firstn_skipn. reflexivity.
Qed.
