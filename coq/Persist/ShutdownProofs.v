(** Proofs for property C03 (see Props/C03.v for the statements). *)
From Coq Require Import List NArith ZArith Bool Arith Lia.
From BBS Require Import Persist.PBL Persist.PBLProofs Persist.Syncer Persist.SyncerProofs Persist.Shutdown Persist.ShutdownArith.
Import ListNotations.

(** the epoch layout: epochLast is determined by the blocks' epoch counts *)
Fixpoint elayout (base : nat) (bs : list binfo) : list nat :=
  match bs with
  | [] => []
  | b :: r => repeat base (b_epochs b) ++ elayout (S base) r
  end.

Lemma elayout_length base bs : length (elayout base bs) = total_epoch_count bs.
Proof.
  revert base. induction bs as [|b r IH]; intros base; cbn; [reflexivity|].
  rewrite app_length, repeat_length, IH. unfold total_epoch_count. cbn. reflexivity.
Qed.

Lemma elayout_app base a b : elayout base (a ++ b) = elayout base a ++ elayout (base + length a) b.
Proof.
  revert base. induction a as [|x a IH]; intros base; cbn.
  - rewrite Nat.add_0_r. reflexivity.
  - rewrite IH, <- app_assoc. replace (base + S (length a)) with (S base + length a) by lia. reflexivity.
Qed.

Lemma elayout_ext base a b : map b_epochs a = map b_epochs b -> elayout base a = elayout base b.
Proof.
  revert base b. induction a as [|x a IH]; intros base [|y b] H; cbn in *; try discriminate; [reflexivity|].
  inversion H. rewrite H1. f_equal. apply IH. assumption.
Qed.

Lemma elayout_range base bs i l : nth_error (elayout base bs) i = Some l -> base <= l < base + length bs.
Proof.
  revert base i. induction bs as [|b r IH]; intros base i H; cbn in H.
  - destruct i; discriminate.
  - destruct (Nat.lt_ge_cases i (b_epochs b)) as [Hlt|Hge].
    + rewrite nth_error_app1 in H by (rewrite repeat_length; exact Hlt).
      apply nth_error_In, repeat_spec in H. subst. cbn. lia.
    + rewrite nth_error_app2 in H by (rewrite repeat_length; exact Hge).
      apply IH in H. cbn. lia.
Qed.

Lemma set_written_epochs_map bs i w : map b_epochs (set_written bs i w) = map b_epochs bs.
Proof.
  revert i. induction bs as [|b r IH]; intros [|i]; cbn; auto.
  - destruct (b_written b <? w)%Z; reflexivity.
  - rewrite IH. reflexivity.
Qed.

Lemma bump_length bs : length (bump_last_epoch_count bs) = length bs.
Proof.
  induction bs as [|b r IH]; [reflexivity|]. destruct r as [|b' r']; [reflexivity|].
  change (bump_last_epoch_count (b :: b' :: r')) with (b :: bump_last_epoch_count (b' :: r')).
  cbn [length]. rewrite IH. reflexivity.
Qed.

Lemma elayout_bump base bs : bs <> [] ->
  elayout base (bump_last_epoch_count bs) = elayout base bs ++ [base + length bs - 1].
Proof.
  revert base. induction bs as [|b r IH]; intros base Hne; [congruence|].
  destruct r as [|b' r'].
  - cbn. rewrite !app_nil_r. replace (base + 1 - 1) with base by lia.
    change (base :: repeat base (b_epochs b)) with (repeat base (S (b_epochs b))).
    rewrite <- repeat_cons. reflexivity.
  - change (bump_last_epoch_count (b :: b' :: r')) with (b :: bump_last_epoch_count (b' :: r')).
    cbn [elayout]. rewrite IH by congruence. rewrite app_assoc. f_equal. f_equal. cbn [length]. lia.
Qed.

Lemma set_written_nth bs i w j b : nth_error bs j = Some b ->
  exists b', nth_error (set_written bs i w) j = Some b' /\ (b_written b <= b_written b')%Z
    /\ b_syncing b' = b_syncing b /\ b_synced b' = b_synced b /\ b_loc b' = b_loc b
    /\ (j = i -> (w <= b_written b')%Z).
Proof.
  revert i j. induction bs as [|x r IH]; intros i j H; [destruct j; discriminate|].
  destruct i as [|i], j as [|j]; cbn in *.
  - inversion H; subst. destruct (Z.ltb_spec (b_written b) w); eexists; (split; [reflexivity|]); cbn; splits; auto; lia.
  - eexists; split; [exact H|]. splits; auto; try lia; try discriminate.
  - injection H as <-. eexists; split; [reflexivity|]. splits; auto; try lia; try discriminate.
  - destruct (IH i j H) as [b' [H1 [H2 [H3 [H4 [H5 H6]]]]]]. eexists; split; [exact H1|]. splits; auto.
Qed.

Lemma bump_nth bs j b : nth_error bs j = Some b ->
  exists b', nth_error (bump_last_epoch_count bs) j = Some b' /\ b_written b' = b_written b
    /\ b_syncing b' = b_syncing b /\ b_synced b' = b_synced b /\ b_loc b' = b_loc b.
Proof.
  revert j. induction bs as [|x r IH]; intros j H; [destruct j; discriminate|].
  destruct r as [|y r'].
  - destruct j as [|j]; [|destruct j; discriminate]. cbn in *. injection H as <-.
    eexists; split; [reflexivity|]. cbn. splits; auto.
  - change (bump_last_epoch_count (x :: y :: r')) with (x :: bump_last_epoch_count (y :: r')).
    destruct j as [|j]; cbn in *.
    + injection H as <-. eexists; split; [reflexivity|]. splits; auto.
    + apply IH. exact H.
Qed.

Definition evicted (p : pbl) (a : ack) : Prop := a_abs a < totalReleased p.
Definition pos (g : gp) (a : ack) : nat := a_ep a - g_pe g.

Record ack_live (p : pbl) (g : gp) (a : ack) : Prop := mkAckLive {
  al_ge : totalReleased p <= a_abs a;
  al_ep : g_pe g <= a_ep a;
  al_seed : nth_error (epochSeeds p) (pos g a) = Some (a_seed a);
  al_last : nth_error (epochLast p) (pos g a) = Some (a_last a);
  al_le : a_abs a <= a_last a;
  al_blk : exists b, nth_error (blocks p) (a_abs a - totalReleased p) = Some b /\ (a_end a <= b_written b)%Z
}.
Definition ack_ok (p : pbl) (g : gp) (a : ack) : Prop := evicted p a \/ ack_live p g a.
Definition ack_syncing (p : pbl) (g : gp) (a : ack) : Prop :=
  evicted p a \/ (pos g a < synchronizingEpochs p /\
                  exists b, nth_error (blocks p) (a_abs a - totalReleased p) = Some b /\ (a_end a <= b_syncing b)%Z).
Definition ack_synced (p : pbl) (g : gp) (a : ack) : Prop :=
  evicted p a \/ (pos g a < synchronizedEpochs p /\
                  exists b, nth_error (blocks p) (a_abs a - totalReleased p) = Some b /\ (a_end a <= b_synced b)%Z).
Definition ack_static (oldest0 : N) (a : ack) : Prop :=
  a_ref a = (u32 (oldest0 + N.of_nat (a_ep a)), u16z (Z.of_nat (a_last a) - Z.of_nat (a_abs a))).

Record ginv (oldest0 : N) (p : pbl) (g : gp) : Prop := mkGinv {
  gi_el : epochLast p = elayout (totalReleased p) (blocks p);
  gi_old : oldestEpochID p = u32 (oldest0 + N.of_nat (g_pe g));
  gi_acks : Forall (ack_ok p g) (g_acks g);
  gi_static : Forall (ack_static oldest0) (g_acks g);
  gi_syncing : Forall (ack_syncing p g) (g_syncing g);
  gi_synced : Forall (ack_synced p g) (g_synced g);
  gi_sub1 : incl (g_syncing g) (g_acks g);
  gi_sub2 : incl (g_synced g) (g_acks g)
}.

Lemma nth_error_app_l {A} (l l' : list A) j x : nth_error l j = Some x -> nth_error (l ++ l') j = Some x.
Proof. intros H. rewrite nth_error_app1; [exact H|]. apply nth_error_Some. congruence. Qed.

Lemma push_back_ginv o alloc p g : ginv o p g -> ginv o (fst (push_back alloc p)) g.
Proof.
  intros G. unfold push_back. destruct (closedForWriting p); [exact G|]. destruct alloc as [l|]; [|exact G].
  destruct G. cbn. constructor; cbn; auto.
  - rewrite elayout_app. cbn. rewrite app_nil_r. exact gi_el0.
  - eapply Forall_impl; [|exact gi_acks0]. intros a [E|L]; [left; exact E|right].
    destruct L. constructor; cbn; auto. destruct al_blk0 as [b [H1 H2]]. exists b. split; [|exact H2].
    apply nth_error_app_l. exact H1.
  - eapply Forall_impl; [|exact gi_syncing0]. intros a [E|[L [b [H1 H2]]]]; [left; exact E|right]. cbn.
    split; [exact L|]. exists b. split; [|exact H2]. apply nth_error_app_l. exact H1.
  - eapply Forall_impl; [|exact gi_synced0]. intros a [E|[L [b [H1 H2]]]]; [left; exact E|right]. cbn.
    split; [exact L|]. exists b. split; [|exact H2]. apply nth_error_app_l. exact H1.
Qed.

Lemma pop_front_shape p p' b rest : blocks p = b :: rest -> pop_front p = Ok p' ->
  blocks p' = rest /\ epochSeeds p' = skipn (b_epochs b) (epochSeeds p)
  /\ epochLast p' = skipn (b_epochs b) (epochLast p) /\ totalReleased p' = S (totalReleased p)
  /\ oldestEpochID p' = u32 (oldestEpochID p + N.of_nat (b_epochs b))
  /\ synchronizingEpochs p' = synchronizingEpochs p - b_epochs b
  /\ synchronizedEpochs p' = synchronizedEpochs p - b_epochs b
  /\ closedForWriting p' = closedForWriting p.
Proof.
  intros Eb. unfold pop_front. rewrite Eb.
  destruct (nc_unblock (releaseWakeup p) (heap p)) as [[rw h1]|]; [|discriminate]. cbn [obind].
  destruct (_ || _); [discriminate|].
  destruct (if _ =? _ then _ else _) as [pw h2].
  intros H; inversion H; subst; clear H. cbn. splits; auto.
  - destruct (Nat.leb_spec (synchronizingEpochs p) (b_epochs b)); lia.
  - destruct (Nat.leb_spec (synchronizedEpochs p) (b_epochs b)); lia.
Qed.

Lemma nth_error_skipn {A} (l : list A) n i : nth_error (skipn n l) i = nth_error l (n + i).
Proof.
  revert l. induction n as [|n IH]; intros l; [reflexivity|]. destruct l; [destruct i; reflexivity|]. cbn. apply IH.
Qed.

Lemma u32_add_l a b : u32 (u32 a + b) = u32 (a + b).
Proof. unfold u32. rewrite N.add_mod_idemp_l; [reflexivity|discriminate]. Qed.

Lemma pop_front_ginv o p g p' b rest : ginv o p g -> blocks p = b :: rest -> pop_front p = Ok p' ->
  ginv o p' (g_pop g (b_epochs b)).
Proof.
  intros G Eb Hp. destruct (pop_front_shape _ _ _ _ Eb Hp) as [Hb [Hs [Hl [Ht [Ho [Hy [Hd _]]]]]]].
  destruct G. set (ec := b_epochs b) in *.
  assert (EL : epochLast p = repeat (totalReleased p) ec ++ elayout (S (totalReleased p)) rest).
  { rewrite gi_el0, Eb. reflexivity. }
  (* a live ack in a later block keeps its place; one in the first block is evicted *)
  assert (Hpos : forall a, ack_live p g a -> totalReleased p < a_abs a -> ec <= pos g a).
  { intros a L Hgt. destruct L. destruct (Nat.lt_ge_cases (pos g a) ec) as [Hlt|]; [|assumption].
    rewrite EL, nth_error_app1 in al_last0 by (rewrite repeat_length; exact Hlt).
    apply nth_error_In, repeat_spec in al_last0. lia. }
  assert (Hblk : forall a, totalReleased p < a_abs a ->
                 nth_error rest (a_abs a - S (totalReleased p)) = nth_error (blocks p) (a_abs a - totalReleased p)).
  { intros a Hgt. rewrite Eb. replace (a_abs a - totalReleased p) with (S (a_abs a - S (totalReleased p))) by lia.
    reflexivity. }
  assert (Hp' : forall a, g_pe g <= a_ep a -> ec <= pos g a -> pos (g_pop g ec) a = pos g a - ec /\ ec + (pos g a - ec) = pos g a).
  { clear. intros a H1 H2. unfold pos in *. cbn. lia. }
  constructor.
  - rewrite Hl, Hb, Ht, EL. rewrite skipn_app, repeat_length, Nat.sub_diag, skipn_all2 by (rewrite repeat_length; lia).
    reflexivity.
  - rewrite Ho, gi_old0, u32_add_l. cbn. f_equal. lia.
  - cbn. eapply Forall_impl; [|exact gi_acks0]. intros a [E|L]; [left; unfold evicted in *; lia|].
    destruct (Nat.eq_dec (a_abs a) (totalReleased p)) as [He|Hne]; [left; unfold evicted; lia|right].
    pose proof L as L0. destruct L. assert (totalReleased p < a_abs a) as Hgt by lia.
    pose proof (Hpos a L0 Hgt) as Hge. destruct (Hp' a al_ep0 Hge) as [Hq1 Hq2].
    constructor.
    + rewrite Ht. lia.
    + cbn. unfold pos in Hge. clear - Hge al_ep0. lia.
    + rewrite Hs, Hq1, nth_error_skipn, Hq2. exact al_seed0.
    + rewrite Hl, Hq1, nth_error_skipn, Hq2. exact al_last0.
    + exact al_le0.
    + rewrite Hb, Ht, Hblk by exact Hgt. exact al_blk0.
  - exact gi_static0.
  - cbn. rewrite Forall_forall in *. intros a Ha. pose proof (gi_syncing0 a Ha) as [E|[Hlt Hbk]]; [left; unfold evicted in *; lia|].
    destruct (Nat.eq_dec (a_abs a) (totalReleased p)) as [He|Hne]; [left; unfold evicted; lia|].
    destruct (gi_acks0 a (gi_sub3 a Ha)) as [E|L]; [left; unfold evicted in *; lia|right].
    assert (totalReleased p < a_abs a) as Hgt by (destruct L; lia).
    pose proof (Hpos a L Hgt) as Hge. destruct (Hp' a (al_ep _ _ _ L) Hge) as [Hq1 Hq2].
    split; [rewrite Hy, Hq1; lia|]. rewrite Hb, Ht, Hblk by exact Hgt. exact Hbk.
  - cbn. rewrite Forall_forall in *. intros a Ha. pose proof (gi_synced0 a Ha) as [E|[Hlt Hbk]]; [left; unfold evicted in *; lia|].
    destruct (Nat.eq_dec (a_abs a) (totalReleased p)) as [He|Hne]; [left; unfold evicted; lia|].
    destruct (gi_acks0 a (gi_sub4 a Ha)) as [E|L]; [left; unfold evicted in *; lia|right].
    assert (totalReleased p < a_abs a) as Hgt by (destruct L; lia).
    pose proof (Hpos a L Hgt) as Hge. destruct (Hp' a (al_ep _ _ _ L) Hge) as [Hq1 Hq2].
    split; [rewrite Hd, Hq1; lia|]. rewrite Hb, Ht, Hblk by exact Hgt. exact Hbk.
  - exact gi_sub3.
  - exact gi_sub4.
Qed.

Lemma elayout_map base f bs : (forall b, b_epochs (f b) = b_epochs b) -> elayout base (map f bs) = elayout base bs.
Proof. intros Hf. apply elayout_ext. rewrite map_map. apply map_ext. exact Hf. Qed.

Lemma live_pos_lt p g a : ack_live p g a -> pos g a < length (epochSeeds p).
Proof. intros L. apply nth_error_Some. rewrite (al_seed _ _ _ L). discriminate. Qed.

Lemma notify_sync_starting_ginv o f p g : ginv o p g -> ginv o (notify_sync_starting f p) (g_start g).
Proof.
  intros G. destruct G. constructor; cbn.
  - rewrite elayout_map by reflexivity. exact gi_el0.
  - exact gi_old0.
  - eapply Forall_impl; [|exact gi_acks0]. intros a [E|L]; [left; exact E|right].
    destruct L. constructor; cbn; auto. destruct al_blk0 as [b [H1 H2]].
    eexists. rewrite nth_error_map, H1. split; [reflexivity|exact H2].
  - exact gi_static0.
  - eapply Forall_impl; [|exact gi_acks0]. intros a [E|L]; [left; exact E|right]. cbn.
    change (pos (g_start g) a) with (pos g a).
    split; [apply (live_pos_lt p g a); exact L|].
    destruct L. destruct al_blk0 as [b [H1 H2]]. eexists. rewrite nth_error_map, H1. split; [reflexivity|exact H2].
  - eapply Forall_impl; [|exact gi_synced0]. intros a [E|[L [b [H1 H2]]]]; [left; exact E|right]. cbn.
    split; [exact L|]. eexists. rewrite nth_error_map, H1. split; [reflexivity|exact H2].
  - apply incl_refl.
  - exact gi_sub4.
Qed.

Lemma nsc_shape p : let p' := notify_sync_completed p in
  blocks p' = map (fun b => mkBinfo (b_loc b) (b_written b) (b_syncing b) (b_syncing b) (b_epochs b)) (blocks p)
  /\ epochSeeds p' = epochSeeds p /\ epochLast p' = epochLast p /\ totalReleased p' = totalReleased p
  /\ oldestEpochID p' = oldestEpochID p /\ synchronizingEpochs p' = synchronizingEpochs p
  /\ synchronizedEpochs p' = synchronizingEpochs p /\ closedForWriting p' = closedForWriting p.
Proof.
  unfold notify_sync_completed. destruct (_ =? _); [destruct (nc_block _ _)|]; cbn; splits; reflexivity.
Qed.

Lemma notify_sync_completed_ginv o p g : ginv o p g -> ginv o (notify_sync_completed p) (g_done g).
Proof.
  intros G. destruct (nsc_shape p) as [Hb [Hs [Hl [Ht [Ho [Hy [Hd _]]]]]]]. destruct G. constructor; cbn.
  - rewrite Hl, Ht, Hb, elayout_map by reflexivity. exact gi_el0.
  - rewrite Ho. exact gi_old0.
  - eapply Forall_impl; [|exact gi_acks0]. intros a [E|L]; [left; unfold evicted in *; rewrite Ht; exact E|right].
    destruct L. constructor; rewrite ?Ht, ?Hs, ?Hl; auto. destruct al_blk0 as [b [H1 H2]].
    eexists. rewrite Hb, nth_error_map, H1. split; [reflexivity|exact H2].
  - exact gi_static0.
  - eapply Forall_impl; [|exact gi_syncing0]. intros a [E|[L [b [H1 H2]]]]; [left; unfold evicted in *; rewrite Ht; exact E|right].
    rewrite Hy, Ht. split; [exact L|]. eexists. rewrite Hb, nth_error_map, H1. split; [reflexivity|exact H2].
  - eapply Forall_impl; [|exact gi_syncing0]. intros a [E|[L [b [H1 H2]]]]; [left; unfold evicted in *; rewrite Ht; exact E|right].
    rewrite Hd, Ht. split; [exact L|]. eexists. rewrite Hb, nth_error_map, H1. split; [reflexivity|exact H2].
  - exact gi_sub3.
  - exact gi_sub3.
Qed.

Lemma ginv_same o p p' g : ginv o p g ->
  blocks p' = blocks p -> epochSeeds p' = epochSeeds p -> epochLast p' = epochLast p ->
  totalReleased p' = totalReleased p -> oldestEpochID p' = oldestEpochID p ->
  synchronizingEpochs p' = synchronizingEpochs p -> synchronizedEpochs p' = synchronizedEpochs p ->
  ginv o p' g.
Proof.
  intros G Hb Hs Hl Ht Ho Hy Hd. destruct G. constructor; auto.
  - rewrite Hl, Ht, Hb. exact gi_el0.
  - rewrite Ho. exact gi_old0.
  - eapply Forall_impl; [|exact gi_acks0]. intros a [E|L]; [left; unfold evicted in *; rewrite Ht; exact E|right].
    destruct L. constructor; rewrite ?Ht, ?Hs, ?Hl, ?Hb; auto.
  - eapply Forall_impl; [|exact gi_syncing0]. intros a [E|L]; [left; unfold evicted in *; rewrite Ht; exact E|right].
    rewrite Hy, Ht, Hb. exact L.
  - eapply Forall_impl; [|exact gi_synced0]. intros a [E|L]; [left; unfold evicted in *; rewrite Ht; exact E|right].
    rewrite Hd, Ht, Hb. exact L.
Qed.

Lemma gps_ginv o p p' st g : ginv o p g -> get_persistent_state p = Ok (p', st) -> ginv o p' g.
Proof.
  intros G. unfold get_persistent_state. destruct (gps_loop _ _ _ _); [|discriminate]. cbn.
  intros [= <-]. eapply ginv_same; eauto.
Qed.

Lemma nsw_ginv o p p' g : ginv o p g -> notify_state_written p = Ok p' -> ginv o p' g.
Proof.
  intros G. unfold notify_state_written. destruct (_ <? _); [discriminate|].
  destruct (skipn _ _); [destruct (nc_block _ _)|]; intros [= <-]; eapply ginv_same; eauto.
Qed.

Lemma put_finalize_not_ok tok blk size seed p p' fr :
  put_finalize tok blk size seed p = Ok (p', fr) -> (forall off, fr <> FinOk off) -> p' = p.
Proof.
  intros H Hn. destruct (put_finalize_cases H); [reflexivity|exfalso; eapply Hn; reflexivity..].
Qed.

Lemma put_finalize_closed tok blk size seed p p' fr :
  closedForWriting p = true -> put_finalize tok blk size seed p = Ok (p', fr) ->
  p' = p /\ (fr = FinClosed \/ fr = FinBlockError).
Proof.
  intros Hc H.
  destruct (put_finalize_cases H) as [fr' [E|[[E _]|[_ E]]]|? ? ? ? _ _ E|? ? ? ? _ _ E]; auto; congruence.
Qed.

Lemma put_finalize_ok_shape tok blk size seed p p' off :
  put_finalize tok blk size seed p = Ok (p', FinOk off) ->
  exists abs, tok = PutAt abs /\ blk = Some off /\ closedForWriting p = false /\ totalReleased p <= abs
    /\ abs - totalReleased p < length (blocks p)
    /\ totalReleased p' = totalReleased p /\ oldestEpochID p' = oldestEpochID p
    /\ synchronizingEpochs p' = synchronizingEpochs p /\ synchronizedEpochs p' = synchronizedEpochs p
    /\ closedForWriting p' = false
    /\ let bl1 := set_written (blocks p) (abs - totalReleased p) (off + size)%Z in
       ((blocks p' = bump_last_epoch_count bl1 /\ epochSeeds p' = epochSeeds p ++ [seed]
         /\ epochLast p' = epochLast p ++ [totalReleased p + length bl1 - 1])
        \/ (blocks p' = bl1 /\ epochSeeds p' = epochSeeds p /\ epochLast p' = epochLast p
            /\ exists n' la, length (epochLast p) = S n' /\ nth_error (epochLast p) n' = Some la /\ abs <= la)).
Proof.
  intros H. apply put_finalize_cases in H. remember (FinOk off) as fr eqn:Ef.
  destruct H as [fr' [->|[[-> _]|[-> _]]]|abs off' n' la Ht Hb Hc Hge Hlt El En Hle|abs off' pw h1 Ht Hb Hc Hge Hlt Hu];
    try discriminate Ef; injection Ef as ->; exists abs; cbn; splits; auto.
  right. splits; auto. exists n', la. auto.
Qed.

Lemma nth_error_last_app {A} (l : list A) x : nth_error (l ++ [x]) (length l) = Some x.
Proof. rewrite nth_error_app2, Nat.sub_diag by lia. reflexivity. Qed.

Lemma put_finalize_ginv o blk size seed p p' off g abs :
  pbl_inv p -> ginv o p g -> put_finalize (PutAt abs) blk size seed p = Ok (p', FinOk off) ->
  exists a, mk_ack g p' abs (off + size)%Z = Some a /\ ginv o p' (g_with_acks g (a :: g_acks g)).
Proof.
  intros I G Hf. destruct (put_finalize_ok_shape _ _ _ _ _ _ _ Hf)
    as [abs' [Ha [Hblk [Hc [Hge [Hlt [Ht [Ho [Hy [Hd [Hc' Hcase]]]]]]]]]]].
  inversion Ha; subst abs'; clear Ha. cbn zeta in Hcase.
  set (i := abs - totalReleased p) in *. set (w := (off + size)%Z) in *.
  set (bl1 := set_written (blocks p) i w) in *.
  assert (Hlen1 : length bl1 = length (blocks p)) by apply set_written_length.
  pose proof (i_len _ I) as Hll.
  destruct G.
  (* facts common to both cases *)
  assert (Hblocks : forall j b, nth_error (blocks p) j = Some b ->
            exists b', nth_error (blocks p') j = Some b' /\ (b_written b <= b_written b')%Z
              /\ b_syncing b' = b_syncing b /\ b_synced b' = b_synced b /\ (j = i -> (w <= b_written b')%Z)).
  { intros j b Hj. destruct (set_written_nth _ i w _ _ Hj) as [b1 [H1 [H2 [H3 [H4 [_ H6]]]]]].
    destruct Hcase as [[Hb _]|[Hb _]]; rewrite Hb.
    - destruct (bump_nth _ _ _ H1) as [b2 [K1 [K2 [K3 [K4 _]]]]]. exists b2. rewrite K2, K3, K4. splits; auto.
    - exists b1. splits; auto. }
  assert (Hseeds : forall j x, nth_error (epochSeeds p) j = Some x -> nth_error (epochSeeds p') j = Some x).
  { intros j x Hj. destruct Hcase as [[_ [Hs _]]|[_ [Hs _]]]; rewrite Hs; [|exact Hj].
    apply nth_error_app_l. exact Hj. }
  assert (Hlasts : forall j x, nth_error (epochLast p) j = Some x -> nth_error (epochLast p') j = Some x).
  { intros j x Hj. destruct Hcase as [[_ [_ Hs]]|[_ [_ [Hs _]]]]; rewrite Hs; [|exact Hj].
    apply nth_error_app_l. exact Hj. }
  assert (HEL : epochLast p' = elayout (totalReleased p') (blocks p')).
  { rewrite Ht. destruct Hcase as [[Hb [_ Hl]]|[Hb [_ [Hl _]]]]; rewrite Hb, Hl.
    - rewrite elayout_bump.
      + rewrite (elayout_ext _ bl1 (blocks p)) by apply set_written_epochs_map. rewrite <- gi_el0. reflexivity.
      + intros E. rewrite E in Hlen1. cbn in Hlen1. lia.
    - rewrite (elayout_ext _ bl1 (blocks p)) by apply set_written_epochs_map. exact gi_el0. }
  (* the new ack *)
  assert (Hnew : exists lei la sd, length (epochSeeds p') = S lei /\ nth_error (epochLast p') lei = Some la
            /\ nth_error (epochSeeds p') lei = Some sd /\ abs <= la).
  { destruct Hcase as [[_ [Hs Hl]]|[_ [Hs [Hl [n' [la [E1 [E2 E3]]]]]]]].
    - exists (length (epochSeeds p)), (totalReleased p + length bl1 - 1), seed.
      rewrite Hs, Hl, app_length. cbn. splits; [lia| | |lia].
      + rewrite <- Hll. apply nth_error_last_app.
      + apply nth_error_last_app.
    - assert (exists sd, nth_error (epochSeeds p) n' = Some sd) as [sd Hsd].
      { destruct (nth_error (epochSeeds p) n') eqn:E; [eauto|]. apply nth_error_None in E. lia. }
      exists n', la, sd. rewrite Hs, Hl. splits; auto. rewrite <- Hll. exact E1. }
  destruct Hnew as [lei [la [sd [N1 [N2 [N3 N4]]]]]].
  assert (Hmk : mk_ack g p' abs w = Some (mkAck abs w (g_pe g + lei) la sd
            (u32 (oldestEpochID p' + N.of_nat lei), u16z (Z.of_nat la - Z.of_nat (totalReleased p') - Z.of_nat (abs - totalReleased p'))))).
  { unfold mk_ack, index_to_ref. rewrite N1, N2, N3. reflexivity. }
  eexists. split; [exact Hmk|].
  constructor; cbn.
  - exact HEL.
  - rewrite Ho. exact gi_old0.
  - constructor.
    + right. constructor; cbn; unfold pos; cbn; rewrite ?Ht; try lia.
      * rewrite (Nat.add_comm (g_pe g) lei), Nat.add_sub. exact N3.
      * rewrite (Nat.add_comm (g_pe g) lei), Nat.add_sub. exact N2.
      * fold i. destruct (nth_error (blocks p) i) as [b|] eqn:Eb; [|apply nth_error_None in Eb; lia].
        destruct (Hblocks _ _ Eb) as [b' [K1 [_ [_ [_ K5]]]]]. exists b'. split; [exact K1|]. apply K5. reflexivity.
    + eapply Forall_impl; [|exact gi_acks0]. intros a [E|L]; [left; unfold evicted in *; rewrite Ht; exact E|right].
      destruct L. constructor; rewrite ?Ht; auto.
      destruct al_blk0 as [b [H1 H2]]. destruct (Hblocks _ _ H1) as [b' [K1 [K2 _]]]. exists b'. split; [exact K1|lia].
  - constructor; [|exact gi_static0]. unfold ack_static. cbn. f_equal.
    + rewrite Ho, gi_old0, u32_add_l. f_equal. lia.
    + f_equal. rewrite Ht. lia.
  - eapply Forall_impl; [|exact gi_syncing0]. intros a [E|[L [b [H1 H2]]]]; [left; unfold evicted in *; rewrite Ht; exact E|right].
    rewrite Hy, Ht. split; [exact L|]. destruct (Hblocks _ _ H1) as [b' [K1 [_ [K3 _]]]]. exists b'. rewrite K3. auto.
  - eapply Forall_impl; [|exact gi_synced0]. intros a [E|[L [b [H1 H2]]]]; [left; unfold evicted in *; rewrite Ht; exact E|right].
    rewrite Hd, Ht. split; [exact L|]. destruct (Hblocks _ _ H1) as [b' [K1 [_ [_ [K4 _]]]]]. exists b'. rewrite K4. auto.
  - intros a Ha. right. apply gi_sub3. exact Ha.
  - intros a Ha. right. apply gi_sub4. exact Ha.
Qed.

Lemma firstn_repeat {A} (x : A) k m : firstn k (repeat x m) = repeat x (Nat.min k m).
Proof.
  revert m. induction k as [|k IH]; intros m; [reflexivity|]. destruct m as [|m]; [reflexivity|].
  cbn. rewrite IH. reflexivity.
Qed.

Lemma firstn_add {A} (l : list A) a b : firstn (a + b) l = firstn a l ++ firstn b (skipn a l).
Proof.
  revert l. induction a as [|a IH]; intros l; [reflexivity|]. destruct l as [|x l]; [cbn; rewrite firstn_nil; reflexivity|].
  cbn. rewrite IH. reflexivity.
Qed.

Lemma skipn_add {A} (l : list A) a b : skipn (a + b) l = skipn b (skipn a l).
Proof.
  revert l. induction a as [|a IH]; intros l; [reflexivity|]. destruct l as [|x l]; [cbn; rewrite skipn_nil; reflexivity|].
  cbn. apply IH.
Qed.

Lemma gps_restore bs : forall lastE synced seeds out n,
  gps_loop bs lastE synced seeds = Ok out -> lastE <= synced ->
  synced <= lastE + total_epoch_count bs -> synced <= length seeds ->
  exists bl, restore_blocks (fun _ _ => true) out n =
               (bl, firstn (synced - lastE) (skipn lastE seeds), firstn (synced - lastE) (elayout n bs))
    /\ length bl = length out /\ length out <= length bs
    /\ (forall j b', nth_error bl j = Some b' ->
          exists b, nth_error bs j = Some b /\ b_written b' = b_synced b /\ b_loc b' = b_loc b)
    /\ (forall e l, e < synced - lastE -> nth_error (elayout n bs) e = Some l -> l < n + length out).
Proof.
  induction bs as [|b r IH]; intros lastE synced seeds out n Hg H1 H2 H3.
  - cbn [gps_loop] in Hg. unfold total_epoch_count in H2. cbn in H2.
    destruct (Nat.ltb_spec lastE synced); [lia|]. injection Hg as <-.
    replace (synced - lastE) with 0 by lia. exists []. cbn. splits; auto; try lia.
    all: try (intros j b' Hj; destruct j; discriminate).
  - cbn [gps_loop] in Hg. destruct (Nat.ltb_spec lastE synced) as [Hlt|Hge].
    + set (last := Nat.min (lastE + b_epochs b) synced) in *.
      destruct (Nat.ltb_spec (length seeds) last); [discriminate|].
      destruct (gps_loop r last synced seeds) as [r'|] eqn:Er; [|discriminate]. cbn [obind] in Hg.
      inversion Hg; subst out; clear Hg.
      assert (Hle : last <= synced) by (unfold last; lia).
      assert (Hcount : synced <= last + total_epoch_count r).
      { unfold last, total_epoch_count in *. cbn in H2. lia. }
      destruct (IH last synced seeds r' (S n) Er Hle Hcount H3) as [bl [Hr [Hl1 [Hl2 [Hb He]]]]].
      cbn [restore_blocks bs_loc bs_off bs_seeds]. rewrite Hr.
      assert (Hfl : length (firstn (last - lastE) (skipn lastE seeds)) = last - lastE).
      { rewrite firstn_length, skipn_length. lia. }
      rewrite Hfl.
      eexists. split; [|splits].
      * f_equal; [f_equal|].
        -- replace (synced - lastE) with ((last - lastE) + (synced - last)) by lia.
           rewrite firstn_add. f_equal. rewrite <- skipn_add. f_equal. f_equal. lia.
        -- cbn [elayout]. destruct (Nat.le_gt_cases (lastE + b_epochs b) synced) as [Hc|Hc].
           ++ replace last with (lastE + b_epochs b) by (unfold last; lia).
              replace (lastE + b_epochs b - lastE) with (b_epochs b) by lia.
              replace (synced - lastE) with (b_epochs b + (synced - (lastE + b_epochs b))) by lia.
              rewrite firstn_add. rewrite firstn_app, repeat_length, Nat.sub_diag, firstn_O, app_nil_r.
              assert (Hf : firstn (b_epochs b) (repeat n (b_epochs b)) = repeat n (b_epochs b))
                by (apply firstn_all2; rewrite repeat_length; lia).
              assert (Hs : skipn (b_epochs b) (repeat n (b_epochs b)) = [])
                by (apply skipn_all2; rewrite repeat_length; lia).
              rewrite Hf, skipn_app, repeat_length, Nat.sub_diag, Hs. reflexivity.
           ++ replace last with synced by (unfold last; lia).
              rewrite Nat.sub_diag, firstn_O, app_nil_r.
              rewrite firstn_app, repeat_length. replace (synced - lastE - b_epochs b) with 0 by lia.
              rewrite firstn_O, app_nil_r, firstn_repeat. f_equal. lia.
      * cbn. rewrite Hl1. reflexivity.
      * cbn. lia.
      * intros j b' Hj. destruct j as [|j]; cbn in Hj.
        -- injection Hj as <-. exists b. cbn. splits; auto.
        -- apply Hb in Hj. exact Hj.
      * intros e l Hlt' Hn. cbn [elayout] in Hn. cbn [length].
        destruct (Nat.lt_ge_cases e (b_epochs b)) as [Hc|Hc].
        -- rewrite nth_error_app1 in Hn by (rewrite repeat_length; exact Hc).
           apply nth_error_In, repeat_spec in Hn. lia.
        -- rewrite nth_error_app2 in Hn by (rewrite repeat_length; exact Hc). rewrite repeat_length in Hn.
           apply He in Hn; [lia|]. unfold last. lia.
    + injection Hg as <-. replace (synced - lastE) with 0 by lia. exists []. cbn. splits; auto; try lia.
      all: try (intros j b' Hj; destruct j; discriminate).
Qed.

Lemma nth_error_firstn_lt {A} (l : list A) n i : i < n -> nth_error (firstn n l) i = nth_error l i.
Proof.
  revert l i. induction n as [|n IH]; intros l i H; [lia|]. destruct l as [|x l]; [destruct i; reflexivity|].
  destruct i as [|i]; [reflexivity|]. cbn. apply IH. lia.
Qed.

Lemma elayout_add k base bs : elayout (k + base) bs = map (Nat.add k) (elayout base bs).
Proof.
  revert base. induction bs as [|b r IH]; intros base; [reflexivity|]. cbn [elayout].
  rewrite map_app. f_equal.
  - induction (b_epochs b); cbn; [reflexivity|]. f_equal. assumption.
  - replace (S (k + base)) with (k + S base) by lia. apply IH.
Qed.

Lemma elayout_shift base bs e l : nth_error (elayout base bs) e = Some l ->
  base <= l /\ nth_error (elayout 0 bs) e = Some (l - base).
Proof.
  replace base with (base + 0) at 1 by lia. rewrite elayout_add, nth_error_map.
  destruct (nth_error (elayout 0 bs) e) as [x|]; cbn; [|discriminate].
  intros [= <-]. split; [lia|]. f_equal. lia.
Qed.

Lemma restart_shape st bl seeds lasts : restore_blocks (fun _ _ => true) (snd st) 0 = (bl, seeds, lasts) ->
  blocks (restart_of st) = bl /\ epochSeeds (restart_of st) = seeds /\ epochLast (restart_of st) = lasts
  /\ totalReleased (restart_of st) = 0 /\ oldestEpochID (restart_of st) = u32 (fst st)
  /\ closedForWriting (restart_of st) = false.
Proof. intros H. unfold restart_of, pbl_new. rewrite H. cbn. splits; reflexivity. Qed.

(** A snapshot taken by GetPersistentState covers every ack that the latest
    completed sync covers. *)
Lemma synced_covers o p p' st g t cohort a : pbl_inv p -> ginv o p g ->
  get_persistent_state p = Ok (p', st) -> ack_ok p g a -> ack_synced p g a ->
  covers (mkGw t st (totalReleased p) (g_pe g) cohort) a.
Proof.
  intros I G Hg Hok Hsy. unfold covers. cbn [gw_base_abs gw_base_ep gw_state].
  destruct Hok as [E|L]; [left; exact E|]. destruct Hsy as [E|[Hlt [b [Hb1 Hb2]]]]; [left; exact E|]. right.
  unfold get_persistent_state in Hg.
  destruct (gps_loop (blocks p) 0 (synchronizedEpochs p) (epochSeeds p)) as [out|] eqn:Eg; [|discriminate].
  cbn [obind] in Hg. inversion Hg; subst p' st; clear Hg.
  destruct I. destruct (gps_restore _ _ _ _ _ 0 Eg) as [bl [Hr [Hl1 [Hl2 [Hbl He]]]]]; try lia.
  rewrite Nat.sub_0_r in *. cbn [skipn] in Hr.
  destruct (restart_shape (oldestEpochID p, out) _ _ _ Hr) as [R1 [R2 [R3 _]]].
  destruct L. fold (pos g a).
  destruct (elayout_shift _ _ _ _ (eq_trans (f_equal (fun l => nth_error l (pos g a)) (eq_sym (gi_el _ _ _ G))) al_last0))
    as [Hge Hsh].
  splits; auto.
  - rewrite R2, nth_error_firstn_lt by exact Hlt. exact al_seed0.
  - rewrite R3, nth_error_firstn_lt by exact Hlt. exact Hsh.
  - rewrite R1. pose proof (He _ _ Hlt Hsh) as Hin. cbn in Hin.
    destruct (nth_error bl (a_abs a - totalReleased p)) as [b'|] eqn:Eb'.
    + destruct (Hbl _ _ Eb') as [b0 [K1 [K2 _]]]. rewrite Hb1 in K1. inversion K1; subst b0.
      exists b'. split; [reflexivity|]. rewrite K2. exact Hb2.
    + apply nth_error_None in Eb'. lia.
Qed.

Lemma covered_record_resolves o w a :
  gw_base_abs w <= a_abs a -> covers w a -> ack_static o a ->
  fst (gw_state w) = u32 (o + N.of_nat (gw_base_ep w)) ->
  (N.of_nat (a_ep a - gw_base_ep w) < 2 ^ 32)%N -> (Z.of_nat (a_last a - a_abs a) < 2 ^ 16)%Z ->
  ref_to_index (fst (a_ref a)) (snd (a_ref a)) (restart_of (gw_state w))
    = Ok (Some (a_abs a - gw_base_abs w, a_seed a))
  /\ exists b, nth_error (blocks (restart_of (gw_state w))) (a_abs a - gw_base_abs w) = Some b
               /\ (a_end a <= b_written b)%Z.
Proof.
  intros Hge [E|[_ [Hep [Hs [Hl [Hle Hb]]]]]] Hst Hold H32 H16; [lia|]. split; [|exact Hb].
  cbn zeta in *. set (p' := restart_of (gw_state w)) in *.
  assert (Ho : oldestEpochID p' = u32 (fst (gw_state w)) /\ totalReleased p' = 0).
  { unfold p', restart_of, pbl_new. destruct (restore_blocks _ _ _) as [[bl sd] ls]. cbn. auto. }
  destruct Ho as [Ho Ht]. unfold ack_static in Hst. rewrite Hst. cbn [fst snd].
  unfold ref_to_index. rewrite Ho, Hold, u32_diff by assumption. rewrite Nat2N.id, Hl, Hs, Ht.
  assert (nth_error (epochSeeds p') (a_ep a - gw_base_ep w) <> None) as Hn by congruence.
  apply nth_error_Some in Hn.
  destruct (N.leb_spec (N.of_nat (length (epochSeeds p'))) (N.of_nat (a_ep a - gw_base_ep w))); [lia|].
  rewrite u16_small by lia.
  destruct (Z.ltb_spec (Z.of_nat (a_last a - gw_base_abs w) - Z.of_nat 0)
                       (Z.of_N (Z.to_N (Z.of_nat (a_last a) - Z.of_nat (a_abs a))))); [lia|].
  repeat f_equal. clear - Hge Hle. lia.
Qed.

Lemma gw_step_g t w a s s' x : gs_g (gw_step t w a s s' x) = gs_g x.
Proof.
  unfold gw_step. destruct w; try reflexivity.
  - destruct t; reflexivity.
  - destruct (a_ok a); [destruct (get_pend x t)|]; destruct t; reflexivity.
Qed.

Lemma wstep_ginv o cfg me w a s s1 w' g : ginv o (s_pbl s) g ->
  wstep cfg me w a s = Some (Ok (s1, w')) -> ginv o (s_pbl s1) g.
Proof.
  intros G H. destruct (wstep_cases H) as [E|p' st E|st E|st E|p' E|dl E]; cbn; try exact G.
  - eapply gps_ginv; eauto.
  - eapply nsw_ginv; eauto.
Qed.

Lemma step_ginv o cfg s e s' x : inv1 s -> ginv o (s_pbl s) (gs_g x) ->
  step cfg s e = Some (Ok s') -> ginv o (s_pbl s') (gs_g (gstep s e s' x)).
Proof.
  intros [I U] G Hs. destruct (is_env e) eqn:He.
  - destruct (env_cases Hs He) as [alloc|b rest p' Eb Ep|index size tok _ _|k blk seed tok sz p' fr En Ef|d|];
      cbn [gstep]; try exact G.
    + apply push_back_ginv. exact G.
    + rewrite Eb. eapply pop_front_ginv; eauto.
    + rewrite En. cbn [s_pbl with_uploads with_pbl]. destruct tok as [|abs].
      * rewrite (put_finalize_not_ok _ _ _ _ _ _ _ Ef); [exact G|].
        intros off Hc; subst. cbn in Ef. inversion Ef.
      * rewrite Ef. destruct fr as [off| | |].
        2-4: (rewrite (put_finalize_not_ok _ _ _ _ _ _ _ Ef) by discriminate; exact G).
        destruct (put_finalize_ginv o _ _ _ _ _ _ _ _ I G Ef) as [a [Hm Hg]]. rewrite Hm. exact Hg.
  - destruct e as [| | | | | |t a]; try discriminate He. cbn [step gstep] in *. destruct t.
    + destruct (rstep_cases Hs) as [Er|ch Er _|w s1 w' Er Ew]; rewrite Er; try exact G.
      rewrite gw_step_g. exact (wstep_ginv _ _ _ _ _ _ _ _ _ G Ew).
    + destruct (pstep_cases Hs) as [pc pc' Ep J|dl Ep _ _ _|keep Ep|Ep|keep final Ep E|keep w s1 w' Ep Ew];
        rewrite Ep.
      * destruct J; exact G.
      * exact G.
      * apply notify_sync_starting_ginv. exact G.
      * apply (notify_sync_starting_ginv o true _ (g_done (gs_g x))). apply notify_sync_completed_ginv. exact G.
      * rewrite E. apply notify_sync_completed_ginv. exact G.
      * rewrite gw_step_g. exact (wstep_ginv _ _ _ _ _ _ _ _ _ G Ew).
Qed.

Definition gw_ok (o : N) (w : gwrite) : Prop :=
  Forall (covers w) (gw_cohort w) /\ Forall (ack_static o) (gw_cohort w)
  /\ fst (gw_state w) = u32 (o + N.of_nat (gw_base_ep w)).
Definition opt_ok (o : N) (ow : option gwrite) : Prop := match ow with Some w => gw_ok o w | None => True end.
Definition wok (o : N) (x : gsys) : Prop :=
  Forall (gw_ok o) (gs_writes x) /\ opt_ok o (gs_pend_r x) /\ opt_ok o (gs_pend_p x).

Definition wpc_of (t : tid) (s : sys) : option wpc :=
  match t with
  | TR => match s_r s with RW w => Some w | _ => None end
  | TP => match s_p s with PW _ w => Some w | _ => None end
  end.

Definition same_writes (x x' : gsys) : Prop :=
  gs_pend_r x' = gs_pend_r x /\ gs_pend_p x' = gs_pend_p x /\ gs_writes x' = gs_writes x.

Lemma same_writes_refl x : same_writes x x.
Proof. unfold same_writes. auto. Qed.
Lemma same_writes_with_g x g : same_writes x (gs_with_g x g).
Proof. unfold same_writes. auto. Qed.

Lemma gstep_frame s e s' x : (forall t a, e = EStep t a -> wpc_of t s = None) -> same_writes x (gstep s e s' x).
Proof.
  intros Hn. destruct e as [alloc| |index size|k blk seed|d| |t a]; cbn [gstep]; try apply same_writes_refl.
  - destruct (blocks _); [apply same_writes_refl|apply same_writes_with_g].
  - destruct (nth_error _ _) as [[[[|abs] sz]|]|]; try apply same_writes_refl.
    destruct (put_finalize _ _ _ _ _) as [[p' [off| | |]]|]; try apply same_writes_refl.
    destruct (mk_ack _ _ _ _); [apply same_writes_with_g|apply same_writes_refl].
  - specialize (Hn t a eq_refl). destruct t; cbn in Hn.
    + destruct (s_r s); try apply same_writes_refl. discriminate.
    + destruct (s_p s) as [|ch|ch|dl|keep|keep final|keep final|keep final dl|keep w|];
        try apply same_writes_refl; try apply same_writes_with_g; try discriminate.
      destruct (negb keep && negb final); apply same_writes_with_g.
Qed.

Lemma wok_same o x x' : same_writes x x' -> wok o x -> wok o x'.
Proof. intros [H1 [H2 H3]] [W1 [W2 W3]]. unfold wok. rewrite H1, H2, H3. auto. Qed.

Lemma get_state_gw_ok o p p' st g t : pbl_inv p -> ginv o p g -> get_persistent_state p = Ok (p', st) ->
  gw_ok o (mkGw t st (totalReleased p) (g_pe g) (g_synced g)).
Proof.
  intros I G Hg. unfold gw_ok. cbn. splits.
  - rewrite Forall_forall. intros a Ha. eapply synced_covers; eauto.
    + pose proof (gi_acks _ _ _ G) as F. rewrite Forall_forall in F. apply F. apply (gi_sub2 _ _ _ G). exact Ha.
    + pose proof (gi_synced _ _ _ G) as F. rewrite Forall_forall in F. apply F. exact Ha.
  - eapply incl_Forall; [apply (gi_sub2 _ _ _ G)|apply (gi_static _ _ _ G)].
  - unfold get_persistent_state in Hg. destruct (gps_loop _ _ _ _); [|discriminate]. cbn in Hg.
    injection Hg as <- <-. cbn. apply (gi_old _ _ _ G).
Qed.

Lemma gw_step_wok o cfg t w a s s1 w' x (s' : sys) :
  inv1 s -> ginv o (s_pbl s) (gs_g x) -> wok o x ->
  wstep cfg t w a s = Some (Ok (s1, w')) ->
  (forall st, w' = Some (WWriting st) -> wpc_of t s' = Some (WWriting st)) ->
  wok o (gw_step t w a s s' x).
Proof.
  intros [I _] G W Hw Hpc. unfold gw_step. destruct w; try exact W.
  - unfold wstep in Hw. destruct (get_persistent_state (s_pbl s)) as [[p' st]|] eqn:Eg; [|discriminate].
    injection Hw as <- <-. specialize (Hpc st eq_refl).
    pose proof (get_state_gw_ok o _ _ _ _ t I G Eg) as Hok.
    destruct W as [W1 [W2 W3]]. destruct t; cbn in Hpc.
    + destruct (s_r s') as [| |w0]; try discriminate. inversion Hpc; subst. unfold wok. cbn. auto.
    + destruct (s_p s') as [| | | | | | | |k0 w0|]; try discriminate. inversion Hpc; subst. unfold wok. cbn. auto.
  - destruct W as [W1 [W2 W3]]. destruct (a_ok a).
    + destruct t; cbn.
      * destruct (gs_pend_r x) eqn:E; unfold wok; cbn; [|rewrite E; auto]. splits; auto.
      * destruct (gs_pend_p x) eqn:E; unfold wok; cbn; [|rewrite E; auto]. splits; auto.
    + destruct t; unfold wok; cbn; auto.
Qed.

Lemma step_wok o cfg s e s' x : inv1 s -> ginv o (s_pbl s) (gs_g x) -> wok o x ->
  step cfg s e = Some (Ok s') -> wok o (gstep s e s' x).
Proof.
  intros II G W Hs.
  destruct e as [alloc| |index size|k blk seed|d| |t a].
  1-6: (eapply wok_same; [apply gstep_frame; discriminate|exact W]).
  (* outside writePersistentStateRetrying the ghost changes at most [gs_g], which [wok] does not read *)
  destruct t; cbn [step gstep] in *.
  - destruct (rstep_cases Hs) as [Er|ch Er _|w s1 w' Er Hw]; rewrite Er; try exact W.
    eapply gw_step_wok; eauto. intros st ->. reflexivity.
  - destruct (pstep_cases Hs) as [pc pc' Ep J|dl Ep _ _ _|keep Ep|Ep|keep final Ep E|keep w s1 w' Ep Hw];
      rewrite Ep; try exact W.
    + destruct J; exact W.
    + rewrite E. exact W.
    + eapply gw_step_wok; eauto. intros st ->. reflexivity.
Qed.

Definition sinv (o : N) (s : sys) (x : gsys) : Prop :=
  inv1 s /\ ginv o (s_pbl s) (gs_g x) /\ wok o x.

Lemma step_sinv o cfg s e s' x : sinv o s x -> step cfg s e = Some (Ok s') -> sinv o s' (gstep s e s' x).
Proof.
  intros [I [G W]] Hs. destruct (step_inv1 _ _ _ _ I Hs) as [s0 [E [I' _]]]. inversion E; subst s0.
  split; [exact I'|]. split; [eapply step_ginv; eauto|eapply step_wok; eauto].
Qed.

Lemma grun_inv cfg (P : sys -> gsys -> Prop) :
  (forall s e s' x, P s x -> step cfg s e = Some (Ok s') -> P s' (gstep s e s' x)) ->
  forall tr s x s' x', P s x -> grun cfg s x tr = Some (Ok (s', x')) -> P s' x'.
Proof.
  intros HP. induction tr as [|e tr IH]; intros s x s' x' Ps H; cbn in H.
  - injection H as <- <-. exact Ps.
  - destruct (step cfg s e) as [[s1|]|] eqn:Es; try discriminate. exact (IH _ _ _ _ (HP _ _ _ _ Ps Es) H).
Qed.

Lemma restore_el alloc init : forall n bl sd ls, restore_blocks alloc init n = (bl, sd, ls) -> ls = elayout n bl.
Proof.
  induction init as [|bs rest IH]; intros n bl sd ls H; cbn in H.
  - inversion H; reflexivity.
  - destruct (alloc _ _); [|inversion H; reflexivity].
    destruct (restore_blocks alloc rest (S n)) as [[bl' sd'] ls'] eqn:E. inversion H; subst.
    cbn. rewrite (IH _ _ _ _ E). reflexivity.
Qed.

Lemma init_sinv alloc oldest init t0 : sinv oldest (init_sys (fst (pbl_new alloc oldest init)) t0) g0.
Proof.
  split; [apply init_inv1|]. split.
  - unfold pbl_new. destruct (restore_blocks alloc init 0) as [[bl sd] ls] eqn:E. cbn.
    constructor; cbn; try constructor; try (intros a []).
    + eapply restore_el; eauto.
    + rewrite N.add_0_r. reflexivity.
  - unfold wok, g0. cbn. auto.
Qed.

(** The projection of the instrumented run is the run of Syncer.v: the ghost
    never influences a step. *)
Lemma grun_run cfg tr : forall s x,
  run cfg s tr = match grun cfg s x tr with
                 | Some (Ok (s', _)) => Some (Ok s')
                 | Some Panic => Some Panic
                 | None => None
                 end.
Proof.
  induction tr as [|e tr IH]; intros s x; cbn; [reflexivity|].
  destruct (step cfg s e) as [[s1|]|]; auto.
Qed.

Definition greachable (cfg : config) (alloc : loc -> Z -> bool) (oldest : N) (init : list bstate) (t0 : N)
  (s : sys) (x : gsys) : Prop :=
  exists tr, grun cfg (init_sys (fst (pbl_new alloc oldest init)) t0) g0 tr = Some (Ok (s, x)).

Lemma greachable_sinv cfg alloc oldest init t0 s x : greachable cfg alloc oldest init t0 s x -> sinv oldest s x.
Proof. intros [tr H]. exact (grun_inv cfg (sinv oldest) (step_sinv oldest cfg) tr _ _ _ _ (init_sinv _ _ _ _) H). Qed.

Lemma greachable_reachable cfg alloc oldest init t0 s x : greachable cfg alloc oldest init t0 s x ->
  reachable cfg alloc oldest init t0 s.
Proof. intros [tr H]. exists tr. rewrite (grun_run cfg tr _ g0), H. reflexivity. Qed.

Theorem commit_covers_all cfg alloc oldest init t0 s x : greachable cfg alloc oldest init t0 s x ->
  forall w, In w (gs_writes x) -> forall a, In a (gw_cohort w) -> covers w a.
Proof.
  intros R w Hw a Ha. destruct (greachable_sinv _ _ _ _ _ _ _ R) as [_ [_ [W _]]].
  rewrite Forall_forall in W. destruct (W w Hw) as [C _]. rewrite Forall_forall in C. auto.
Qed.

Theorem commit_record_resolves cfg alloc oldest init t0 s x : greachable cfg alloc oldest init t0 s x ->
  forall w, In w (gs_writes x) -> forall a, In a (gw_cohort w) ->
  gw_base_abs w <= a_abs a ->
  (N.of_nat (a_ep a - gw_base_ep w) < 2 ^ 32)%N -> (Z.of_nat (a_last a - a_abs a) < 2 ^ 16)%Z ->
  ref_to_index (fst (a_ref a)) (snd (a_ref a)) (restart_of (gw_state w))
    = Ok (Some (a_abs a - gw_base_abs w, a_seed a))
  /\ exists b, nth_error (blocks (restart_of (gw_state w))) (a_abs a - gw_base_abs w) = Some b
               /\ (a_end a <= b_written b)%Z.
Proof.
  intros R w Hw a Ha Hge H32 H16. destruct (greachable_sinv _ _ _ _ _ _ _ R) as [_ [_ [W _]]].
  rewrite Forall_forall in W. destruct (W w Hw) as [C [S O]]. rewrite Forall_forall in C, S.
  eapply covered_record_resolves; eauto.
Qed.

(** refused, not lost: once the list is closed for writing no finalizer
    returns FinOk, nothing changes, no ack is created *)
Theorem refused_not_lost_pbl tok blk size seed p p' fr :
  closedForWriting p = true -> put_finalize tok blk size seed p = Ok (p', fr) ->
  p' = p /\ (fr = FinClosed \/ (fr = FinBlockError /\ blk = None)).
Proof.
  intros Hc H.
  destruct (put_finalize_cases H) as [fr' [E|[E|[_ E]]]|? ? ? ? _ _ E|? ? ? ? _ _ E]; auto; congruence.
Qed.

Lemma push_back_closed alloc p : closedForWriting p = true -> push_back alloc p = (p, PushClosed).
Proof. intros Hc. unfold push_back. rewrite Hc. reflexivity. Qed.

Lemma gps_closed p p' st : get_persistent_state p = Ok (p', st) -> closedForWriting p' = closedForWriting p.
Proof.
  unfold get_persistent_state. destruct (gps_loop _ _ _ _); [|discriminate]. cbn. intros [= <-]; reflexivity.
Qed.
Lemma nsw_closed p p' : notify_state_written p = Ok p' -> closedForWriting p' = closedForWriting p.
Proof.
  unfold notify_state_written. destruct (_ <? _); [discriminate|].
  destruct (skipn _ _); [destruct (nc_block _ _)|]; intros [= <-]; reflexivity.
Qed.
Lemma nsc_closed p : closedForWriting (notify_sync_completed p) = closedForWriting p.
Proof. apply (nsc_shape p). Qed.
Lemma put_finalize_closed_flag tok blk size seed p p' fr :
  put_finalize tok blk size seed p = Ok (p', fr) -> closedForWriting p' = closedForWriting p.
Proof. intros H. destruct (put_finalize_cases H); reflexivity. Qed.
Lemma wstep_closed cfg me w a s s1 w' : wstep cfg me w a s = Some (Ok (s1, w')) ->
  closedForWriting (s_pbl s1) = closedForWriting (s_pbl s).
Proof.
  intros H. destruct (wstep_cases H) as [E|p' st E|st E|st E|p' E|dl E]; cbn; try reflexivity.
  - eapply gps_closed; eauto.
  - eapply nsw_closed; eauto.
Qed.

(** closedForWriting is set by exactly one step: the put loop's
    NotifySyncStarting(true) after the first shutdown sync; it is never reset *)
Lemma step_closed cfg s e s' : step cfg s e = Some (Ok s') ->
  closedForWriting (s_pbl s') = closedForWriting (s_pbl s)
  \/ (closedForWriting (s_pbl s) = false /\ closedForWriting (s_pbl s') = true /\
      exists a, e = EStep TP a /\ s_p s = PSyncRet false false /\ s_p s' = PSyncing false true).
Proof.
  intros Hs. destruct (is_env e) eqn:He.
  - left. destruct (env_cases Hs He) as [alloc|b rest p' Eb Ep| |k blk seed tok sz p' fr En Ef| |];
      cbn; try reflexivity.
    + unfold push_back. destruct (closedForWriting (s_pbl s)) eqn:E; [exact E|]. destruct alloc; exact E.
    + apply (pop_front_shape _ _ _ _ Eb Ep).
    + eapply put_finalize_closed_flag; eauto.
  - destruct e as [| | | | | |t a]; try discriminate He. cbn [step] in Hs. destruct t.
    + left. destruct (rstep_cases Hs) as [_|ch _ _|w s1 w' _ Ew]; try reflexivity.
      exact (wstep_closed _ _ _ _ _ _ _ Ew).
    + destruct (pstep_cases Hs) as [pc pc' _ _|dl _ _ _ _|keep _|Ep|keep final _ _|keep w s1 w' _ Ew]; auto.
      * destruct (closedForWriting (s_pbl s)) eqn:E; [left; reflexivity|right].
        cbn. splits; auto. exists a. auto.
      * left. apply nsc_closed.
      * left. exact (wstep_closed _ _ _ _ _ _ _ Ew).
Qed.

Definition all_acked (x : gsys) (w : gwrite) : Prop := gw_cohort w = g_acks (gs_g x).
Definition head_all_acked (x : gsys) : Prop := exists w0 rest, gs_writes x = w0 :: rest /\ all_acked x w0.

Definition fi (s : sys) (x : gsys) : Prop :=
  closedForWriting (s_pbl s) = true ->
  g_syncing (gs_g x) = g_acks (gs_g x) /\
  match s_p s with
  | PSyncing false true | PSyncSleep false true _ | PSyncRet false true => True
  | PW false w =>
      g_synced (gs_g x) = g_acks (gs_g x) /\
      match w with
      | WWriting _ => exists w0, gs_pend_p x = Some w0 /\ all_acked x w0
      | WWritten => head_all_acked x
      | _ => True
      end
  | PExit =>
      g_synced (gs_g x) = g_acks (gs_g x) /\ head_all_acked x /\
      match s_r s with
      | RW (WWriting _) => exists w0, gs_pend_r x = Some w0 /\ all_acked x w0
      | _ => True
      end
  | _ => False
  end.

Lemma fi_frame s x s' x' :
  s_p s' = s_p s -> s_r s' = s_r s ->
  g_acks (gs_g x') = g_acks (gs_g x) -> g_syncing (gs_g x') = g_syncing (gs_g x) ->
  g_synced (gs_g x') = g_synced (gs_g x) -> same_writes x x' ->
  (closedForWriting (s_pbl s') = true -> closedForWriting (s_pbl s) = true) ->
  fi s x -> fi s' x'.
Proof.
  intros Hp Hr Ha Hy Hd [W1 [W2 W3]] Hc F C. specialize (F (Hc C)).
  unfold fi, head_all_acked, all_acked in *. rewrite Hp, Hr, Ha, Hy, Hd, W1, W2, W3. exact F.
Qed.

Lemma holds_excl s : inv3 s -> r_holds s = true -> p_holds s = true -> False.
Proof. intros [_ H] Hr Hp. rewrite Hr, Hp in H. discriminate. Qed.

Lemma fi_r_quiet s x s' x' :
  s_p s' = s_p s -> (forall st, s_r s' <> RW (WWriting st)) ->
  gs_g x' = gs_g x -> gs_pend_p x' = gs_pend_p x -> gs_writes x' = gs_writes x ->
  (closedForWriting (s_pbl s') = true -> closedForWriting (s_pbl s) = true) ->
  fi s x -> fi s' x'.
Proof.
  intros Hp Hr Hg Hpp Hw Hc F C. destruct (F (Hc C)) as [F1 F2].
  unfold fi, head_all_acked, all_acked in *. rewrite Hp, Hg, Hpp, Hw. split; [exact F1|].
  destruct (s_p s) as [| | | | |[] []|[] []|[] [] ?|[] w0|]; auto.
  destruct F2 as [A [B _]]. splits; auto. destruct (s_r s') as [| |[]]; auto. exfalso. eapply Hr. reflexivity.
Qed.

Lemma step_fi cfg s e s' x : inv3 s -> fi s x -> step cfg s e = Some (Ok s') -> fi s' (gstep s e s' x).
Proof.
  intros I3 F Hs.
  destruct (step_closed _ _ _ _ Hs) as [Hsame|[Hc0 [Hc1 [a [He [Hp0 Hp1]]]]]].
  2:{ (* the closing step *)
    subst e. intros _. cbn [gstep]. rewrite Hp0, Hp1. cbn. auto. }
  assert (Hc : closedForWriting (s_pbl s') = true -> closedForWriting (s_pbl s) = true) by congruence.
  destruct (is_env e) eqn:He.
  { destruct (env_cases Hs He) as [alloc|b rest p' Eb Ep|index size tok _ _|k blk seed tok sz p' fr En Ef|d|];
      cbn [gstep]; try (apply (fi_frame s x); auto; apply same_writes_refl).
    - rewrite Eb. apply (fi_frame s x); auto. apply same_writes_with_g.
    - (* a finalizer on the closed list changes neither the list nor the ghost *)
      intros C. cbn [s_pbl with_uploads with_pbl] in *. pose proof (Hc C) as Cs.
      destruct (refused_not_lost_pbl _ _ _ _ _ _ _ Cs Ef) as [Hpp Hfr].
      rewrite En. destruct tok as [|abs]; [exact (F Cs)|]. rewrite Ef.
      destruct Hfr as [->|[-> _]]; exact (F Cs). }
  destruct e as [| | | | | |t a]; try discriminate He. cbn [step] in Hs.
  - cbn [gstep]. destruct t.
    + (* release loop *)
      destruct (rstep_cases Hs) as [Er|ch Er _|w s1 w' Er Ew]; rewrite Er.
      1, 2: apply (fi_r_quiet s x); auto; discriminate.
      destruct (wstep_cases Ew) as [E|p' st E|st E|st E|p' E|dl E].
      1, 4, 5, 6: apply (fi_r_quiet s x); cbn [gw_step]; auto; try discriminate; try rewrite E; reflexivity.
      * (* the snapshot's cohort is [g_synced], which is all acks once the put loop is past its final sync *)
        intros C. destruct (F (Hc C)) as [F1 F2]. unfold fi in *. rewrite gw_step_g. split; [exact F1|]. cbn.
        destruct (s_p s) as [| | | | |[] []|[] []|[] [] ?|[] w0|]; auto.
        destruct F2 as [A [B _]]. splits; auto. eexists. split; [reflexivity|]. exact A.
      * (* the pending snapshot becomes the newest write; the put loop is not at WWritten, as the
           release loop holds the lock *)
        intros C. destruct (F (Hc C)) as [F1 F2]. unfold fi in *. rewrite gw_step_g. split; [exact F1|].
        rewrite Er in F2. cbn. rewrite E.
        assert (Hrh : p_holds s = false).
        { destruct (p_holds s) eqn:Eh; [|reflexivity]. exfalso.
          apply (holds_excl s I3); [unfold r_holds; rewrite Er; reflexivity|exact Eh]. }
        unfold p_holds in Hrh.
        destruct (s_p s) as [| | | | |[] []|[] []|[] [] ?|[] w0|]; auto.
        -- destruct F2 as [A B]. destruct (gs_pend_r x); cbn; split; auto; destruct w0; auto; discriminate.
        -- destruct F2 as [A [B [w0 [P Q]]]]. rewrite P. cbn. splits; auto.
           exists w0, (gs_writes x). split; [reflexivity|exact Q].
    + (* put loop *)
      intros C. destruct (F (Hc C)) as [F1 F2]. unfold fi.
      destruct (pstep_cases Hs) as [pc pc' Ep J|dl Ep _ _ _|keep Ep|Ep|keep final Ep E|keep w s1 w' Ep Ew];
        rewrite Ep in *; try (exfalso; exact F2).
      * destruct J as [|ch E|ch E|ch E|ch E E'|dl E|k f E|k f E|k f dl E]; try (exfalso; exact F2);
          destruct k, f; try (exfalso; exact F2); cbn; auto.
      * destruct keep, final; try (exfalso; exact F2). cbn. auto.
      * destruct keep; [exfalso; exact F2|]. destruct F2 as [A B]. rewrite gw_step_g.
        destruct (wstep_cases Ew) as [E|p' st E|st E|st E|p' E|dl E]; cbn; auto.
        -- splits; auto. eexists. split; [reflexivity|]. exact A.
        -- destruct B as [w0 [P Q]]. rewrite E, P. cbn. splits; auto.
           exists w0, (gs_writes x). split; [reflexivity|exact Q].
        -- splits; auto. destruct (s_r s) as [| |w0] eqn:Er; auto. destruct w0; auto. exfalso.
           apply (holds_excl s I3); [unfold r_holds; rewrite Er|unfold p_holds; rewrite Ep]; reflexivity.
Qed.

(** where the put loop is once the final sync has begun *)
Definition pcinv (s : sys) : Prop :=
  match s_p s with
  | PSyncing k true | PSyncSleep k true _ | PSyncRet k true => k = false /\ closedForWriting (s_pbl s) = true
  | PW false _ | PExit => closedForWriting (s_pbl s) = true
  | _ => True
  end.

Lemma step_pcinv cfg s e s' : pcinv s -> step cfg s e = Some (Ok s') -> pcinv s'.
Proof.
  intros P Hs. pose proof (step_closed _ _ _ _ Hs) as Hcl.
  assert (Hmono : closedForWriting (s_pbl s) = true -> closedForWriting (s_pbl s') = true).
  { destruct Hcl as [E|[_ [E _]]]; congruence. }
  assert (Hframe : s_p s' = s_p s -> pcinv s').
  { intros E. unfold pcinv in *. rewrite E.
    destruct (s_p s) as [| | | | |k []|k []|k [] ?|[] w|]; intuition. }
  destruct e as [alloc| |index size|k blk seed|d| |t a].
  1-6: (apply Hframe; refine (proj2 (env_frame cfg s _ s' _ Hs)); discriminate).
  cbn [step] in Hs. destruct t.
  - apply Hframe. destruct (rstep_fields Hs) as [p' [st' [r' [ws' ->]]]]. reflexivity.
  - clear Hframe Hmono Hcl. unfold pcinv in *.
    destruct (pstep_cases Hs) as [pc pc' Ep J|dl Ep _ _ _|keep Ep|Ep|keep final Ep E|keep w s1 w' Ep Ew];
      rewrite Ep in P; cbn; auto.
    + destruct J as [|ch E|ch E|ch E|ch E E'|dl E|k f E|k f E|k f dl E]; try exact I; destruct f; exact P.
    + destruct keep; [exact I|]. destruct final; [|discriminate E]. cbn. rewrite nsc_closed. exact (proj2 P).
    + pose proof (wstep_closed _ _ _ _ _ _ _ Ew) as Hc.
      destruct w'; destruct keep; cbn; auto; rewrite Hc; exact P.
Qed.

Definition sinv2 (o : N) (s : sys) (x : gsys) : Prop := sinv o s x /\ inv3 s /\ fi s x /\ pcinv s.

Lemma step_sinv2 o cfg s e s' x : sinv2 o s x -> step cfg s e = Some (Ok s') -> sinv2 o s' (gstep s e s' x).
Proof.
  intros [S1 [S2 [S3 S4]]] Hs. split; [eapply step_sinv; eauto|].
  split; [eapply step_inv3; eauto|]. split; [eapply step_fi; eauto|eapply step_pcinv; eauto].
Qed.

Lemma grun_sinv2 o cfg tr : forall s x s' x', sinv2 o s x -> grun cfg s x tr = Some (Ok (s', x')) -> sinv2 o s' x'.
Proof. exact (grun_inv cfg (sinv2 o) (step_sinv2 o cfg) tr). Qed.

Lemma init_sinv2 alloc oldest init t0 : sinv2 oldest (init_sys (fst (pbl_new alloc oldest init)) t0) g0.
Proof.
  split; [apply init_sinv|]. split; [apply init_inv3|]. split.
  - intros C. exfalso. unfold pbl_new in C. destruct (restore_blocks _ _ _) as [[bl sd] ls]. cbn in C. discriminate.
  - exact I.
Qed.

Lemma greachable_sinv2 cfg alloc oldest init t0 s x : greachable cfg alloc oldest init t0 s x -> sinv2 oldest s x.
Proof. intros [tr H]. exact (grun_sinv2 _ _ tr _ _ _ _ (init_sinv2 alloc oldest init t0) H). Qed.

(** graceful: when ProcessBlockPut has returned false, the newest completed
    state write — the state on the medium — covers every ack ever made *)
Theorem graceful_all cfg alloc oldest init t0 s x : greachable cfg alloc oldest init t0 s x ->
  s_p s = PExit ->
  closedForWriting (s_pbl s) = true /\
  exists w rest, gs_writes x = w :: rest /\ gw_cohort w = g_acks (gs_g x) /\
                 forall a, In a (g_acks (gs_g x)) -> covers w a.
Proof.
  intros R Hp. destruct (greachable_sinv2 _ _ _ _ _ _ _ R) as [[_ [_ W]] [_ [F P]]].
  unfold pcinv in P. rewrite Hp in P. split; [exact P|]. specialize (F P). rewrite Hp in F.
  destruct F as [_ [_ [[w [rest [Hw Ha]]] _]]]. exists w, rest. splits; auto.
  intros a Hin. destruct W as [W _]. rewrite Hw in W. apply Forall_inv in W. destruct W as [C _].
  rewrite Forall_forall in C. apply C. unfold all_acked in Ha. rewrite Ha. exact Hin.
Qed.

(** refused, not lost, over all schedules: after the final NotifySyncStarting
    no step creates an ack and every finalizer leaves the list unchanged *)
Theorem refused_not_lost_all cfg alloc oldest init t0 s x : greachable cfg alloc oldest init t0 s x ->
  closedForWriting (s_pbl s) = true ->
  forall e s', step cfg s e = Some (Ok s') ->
    closedForWriting (s_pbl s') = true /\ g_acks (gs_g (gstep s e s' x)) = g_acks (gs_g x).
Proof.
  intros R C e s' Hs. split.
  - destruct (step_closed _ _ _ _ Hs) as [E|[E _]]; congruence.
  - destruct e as [alloc'| |index size|k blk seed|d| |t a]; cbn [gstep]; try reflexivity.
    + destruct (blocks _); reflexivity.
    + destruct (nth_error (s_uploads s) k) as [[[[|abs] sz]|]|] eqn:En; try reflexivity.
      destruct (put_finalize (PutAt abs) blk sz seed (s_pbl s)) as [[p' fr]|] eqn:Ef; [|reflexivity].
      destruct (refused_not_lost_pbl _ _ _ _ _ _ _ C Ef) as [_ [->|[-> _]]]; reflexivity.
    + destruct t.
      * destruct (s_r s); try reflexivity. rewrite gw_step_g. reflexivity.
      * destruct (s_p s) as [| | | | |? ?|k f|? ? ?|? w|]; try reflexivity.
        -- destruct (negb k && negb f); reflexivity.
        -- rewrite gw_step_g. reflexivity.
Qed.

Definition cap_new (pol : policy) : nat := match pol with Immutable d => d | Mutable _ => 1 end.
Definition cap_cur (pol : policy) : nat := match pol with Immutable _ => 0 | Mutable d => d end.

Lemma grow_new_cap pol nb : should_grow_new pol 0 nb = (nb <? cap_new pol).
Proof. destruct pol; reflexivity. Qed.
Lemma grow_current_cap pol cb : should_grow_current pol cb = (cb <? cap_cur pol).
Proof. destruct pol; [destruct cb|]; reflexivity. Qed.

Lemma promote_new_spec pol : forall fuel i nb i' nb', i <= fuel -> promote_new pol fuel i nb = (i', nb') ->
  i' + nb' = i + nb /\ (i' = 0 \/ cap_new pol <= nb') /\ nb' <= Nat.max nb (cap_new pol).
Proof.
  induction fuel as [|f IH]; intros i nb i' nb' Hle H; cbn in H.
  - injection H as <- <-. lia.
  - destruct i as [|i]; [injection H as <- <-; lia|]. rewrite grow_new_cap in H.
    destruct (Nat.ltb_spec nb (cap_new pol)).
    + apply IH in H; lia.
    + injection H as <- <-. lia.
Qed.

Lemma promote_current_spec pol : forall fuel i cb i' cb', i <= fuel -> promote_current pol fuel i cb = (i', cb') ->
  i' + cb' = i + cb /\ (i' = 0 \/ cap_cur pol <= cb') /\ cb' <= Nat.max cb (cap_cur pol).
Proof.
  induction fuel as [|f IH]; intros i cb i' cb' Hle H; cbn in H.
  - injection H as <- <-. lia.
  - destruct i as [|i]; [injection H as <- <-; lia|]. rewrite grow_current_cap in H.
    destruct (Nat.ltb_spec cb (cap_cur pol)).
    + apply IH in H; lia.
    + injection H as <- <-. lia.
Qed.

Lemma ocn_new_counts pol desiredOld n :
  l_old (ocn_new pol desiredOld n) + l_current (ocn_new pol desiredOld n) + l_new (ocn_new pol desiredOld n) = n.
Proof.
  unfold ocn_new. destruct (promote_new pol n n 0) as [i1 nb] eqn:E1.
  destruct (promote_current pol i1 i1 0) as [i2 cb] eqn:E2. cbn.
  destruct (promote_new_spec _ _ _ _ _ _ (le_n _) E1) as [H1 _].
  destruct (promote_current_spec _ _ _ _ _ _ (le_n _) E2) as [H2 _]. lia.
Qed.

Theorem restored_layout_released pol old n :
  l_to_be_released (ocn_new pol old n) = n - (old + cap_cur pol + cap_new pol).
Proof.
  unfold ocn_new. destruct (promote_new pol n n 0) as [i1 nb] eqn:E1.
  destruct (promote_current pol i1 i1 0) as [i2 cb] eqn:E2. cbn [l_to_be_released].
  apply promote_new_spec in E1; [|apply le_n]. apply promote_current_spec in E2; [|apply le_n].
  cbn [Nat.max] in E1, E2. destruct (Nat.ltb_spec old i2); lia.
Qed.

Theorem restored_layout_cas old cur new n : n <= old + cur + new ->
  l_to_be_released (ocn_new (cas_policy cur new) old n) = 0.
Proof. intros Hn. rewrite restored_layout_released. cbn. lia. Qed.

Theorem restored_layout_ac old cur n : n <= old + cur + 1 ->
  l_to_be_released (ocn_new (ac_policy cur) old n) = 0.
Proof. intros Hn. rewrite restored_layout_released. cbn. lia. Qed.

(** and the hypothesis is sharp: one block more is scheduled for release *)
Theorem restored_layout_cas_overflow old cur new n : old + cur + new < n ->
  l_to_be_released (ocn_new (cas_policy cur new) old n) = n - (old + cur + new).
Proof. intros Hn. rewrite restored_layout_released. cbn. lia. Qed.

(** BlockReferenceToBlockIndex succeeds exactly when the referenced epoch is
    one of the list's epochs (its seed is then the one returned) and the
    referenced block — BlocksFromLast before the epoch's last block — has not
    been popped; the block is then listed. *)
Lemma ref_to_index_iff p eid bfl i sd :
  length (epochLast p) = length (epochSeeds p) ->
  epochLast p = elayout (totalReleased p) (blocks p) ->
  (ref_to_index eid bfl p = Ok (Some (i, sd)) <->
   exists e la, N.of_nat e = u32 (eid + 2 ^ 32 - oldestEpochID p)
     /\ nth_error (epochSeeds p) e = Some sd /\ nth_error (epochLast p) e = Some la
     /\ (Z.of_nat (totalReleased p) + Z.of_N bfl <= Z.of_nat la)%Z
     /\ i = Z.to_nat (Z.of_nat la - Z.of_nat (totalReleased p) - Z.of_N bfl)
     /\ i < length (blocks p)).
Proof.
  intros Hlen HEL. unfold ref_to_index.
  set (en := u32 (eid + 2 ^ 32 - oldestEpochID p)).
  destruct (N.leb_spec (N.of_nat (length (epochSeeds p))) en) as [Hle|Hlt].
  - split; [discriminate|]. intros [e [la [He [Hs _]]]]. exfalso.
    assert (e < length (epochSeeds p)) by (apply nth_error_Some; congruence). lia.
  - assert (Hn : N.to_nat en < length (epochSeeds p)) by lia.
    destruct (nth_error (epochLast p) (N.to_nat en)) as [la|] eqn:El;
      [|apply nth_error_None in El; lia].
    destruct (nth_error (epochSeeds p) (N.to_nat en)) as [sd'|] eqn:Es;
      [|apply nth_error_None in Es; lia].
    assert (Hrange : totalReleased p <= la < totalReleased p + length (blocks p)).
    { rewrite HEL in El. eapply elayout_range; eauto. }
    destruct (Z.ltb_spec (Z.of_nat la - Z.of_nat (totalReleased p)) (Z.of_N bfl)) as [Hb|Hb].
    + split; [discriminate|]. intros [e [la' [He [_ [Hl [Hz _]]]]]]. exfalso.
      assert (e = N.to_nat en) by lia. subst e. rewrite El in Hl. injection Hl as <-. lia.
    + split.
      * intros [= <- <-]. exists (N.to_nat en), la. splits; auto; lia.
      * intros [e [la' [He [Hs [Hl [Hz [Hi _]]]]]]].
        assert (e = N.to_nat en) by lia. subst e. rewrite El in Hl. rewrite Es in Hs.
        inversion Hl; inversion Hs; subst. reflexivity.
Qed.

Lemma restart_wf st : let p := restart_of st in
  length (epochLast p) = length (epochSeeds p) /\ epochLast p = elayout (totalReleased p) (blocks p).
Proof.
  cbn zeta. unfold restart_of, pbl_new. destruct (restore_blocks _ (snd st) 0) as [[bl sd] ls] eqn:E. cbn.
  split; [apply (restore_lengths _ _ _ _ _ _ E)|eapply restore_el; eauto].
Qed.
