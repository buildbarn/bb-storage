(** C19 — lemmas about strings, names, join/split, canonical digest sets. *)
From Coq Require Import List ZArith NArith Bool Arith Lia.
From BBS Require Import Routing.Names.
Import ListNotations.

Lemma str_eqb_eq a b : str_eqb a b = true <-> a = b.
Proof.
  revert b; induction a as [|x a IH]; destruct b as [|y b]; cbn; try (split; congruence).
  rewrite andb_true_iff, N.eqb_eq, IH. split; [intros [-> ->]; reflexivity|intros [= -> ->]; auto].
Qed.
Lemma str_eqb_refl a : str_eqb a a = true.
Proof. apply str_eqb_eq; reflexivity. Qed.
Lemma str_eqb_neq a b : str_eqb a b = false <-> a <> b.
Proof.
  split; intros H.
  - intros E. apply str_eqb_eq in E. congruence.
  - destruct (str_eqb a b) eqn:E; [apply str_eqb_eq in E; contradiction|reflexivity].
Qed.
Lemma str_eqb_sym a b : str_eqb a b = str_eqb b a.
Proof.
  destruct (str_eqb a b) eqn:E1, (str_eqb b a) eqn:E2; try reflexivity.
  - apply str_eqb_eq in E1. subst. rewrite str_eqb_refl in E2. discriminate.
  - apply str_eqb_eq in E2. subst. rewrite str_eqb_refl in E1. discriminate.
Qed.

Lemma name_eqb_eq a b : name_eqb a b = true <-> a = b.
Proof.
  revert b; induction a as [|x a IH]; destruct b as [|y b]; cbn; try (split; congruence).
  rewrite andb_true_iff, str_eqb_eq, IH. split; [intros [-> ->]; reflexivity|intros [= -> ->]; auto].
Qed.
Lemma name_eqb_refl a : name_eqb a a = true.
Proof. apply name_eqb_eq; reflexivity. Qed.
Lemma name_eqb_neq a b : name_eqb a b = false <-> a <> b.
Proof.
  split; intros H.
  - intros E. apply name_eqb_eq in E. congruence.
  - destruct (name_eqb a b) eqn:E; [apply name_eqb_eq in E; contradiction|reflexivity].
Qed.

Lemma dg_eqb_eq a b : dg_eqb a b = true <-> a = b.
Proof.
  destruct a as [a1 a2], b as [b1 b2]. unfold dg_eqb; cbn.
  rewrite andb_true_iff, str_eqb_eq, N.eqb_eq. split; [intros [-> ->]; reflexivity|intros [= -> ->]; auto].
Qed.
Lemma dg_eqb_refl a : dg_eqb a a = true.
Proof. apply dg_eqb_eq; reflexivity. Qed.
Lemma dg_mem_In d l : dg_mem d l = true <-> In d l.
Proof.
  unfold dg_mem. rewrite existsb_exists. split.
  - intros [x [Hx E]]. apply dg_eqb_eq in E. subst. exact Hx.
  - intros H. exists d. split; [exact H|apply dg_eqb_refl].
Qed.

Lemma is_prefix_app p r : is_prefix p (p ++ r) = true.
Proof. induction p; cbn; [reflexivity|]. rewrite str_eqb_refl. exact IHp. Qed.
Lemma is_prefix_iff p n : is_prefix p n = true <-> exists r, n = p ++ r.
Proof.
  revert n; induction p as [|c p IH]; intros n; cbn.
  - split; [intros _; exists n; reflexivity|reflexivity].
  - destruct n as [|d n]; [split; [discriminate|intros [r H]; discriminate]|].
    rewrite andb_true_iff, str_eqb_eq, IH. split.
    + intros [-> [r ->]]. exists r. reflexivity.
    + intros [r [= -> ->]]. split; [reflexivity|exists r; reflexivity].
Qed.

Lemma comp_ok_spec c : comp_ok c = true <-> c <> [] /\ ~ In slash c.
Proof.
  unfold comp_ok. rewrite andb_true_iff, forallb_forall. split.
  - intros [H1 H2]. split; [destruct c; [discriminate|congruence]|].
    intros Hin. apply H2 in Hin. rewrite N.eqb_refl in Hin. discriminate.
  - intros [H1 H2]. split; [destruct c; [congruence|reflexivity]|].
    intros x Hx. destruct (N.eqb x slash) eqn:E; [apply N.eqb_eq in E; subst; contradiction|reflexivity].
Qed.

Lemma split_aux_comp cur c s :
  ~ In slash c -> split_aux cur (c ++ s) = split_aux (rev c ++ cur) s.
Proof.
  revert cur; induction c as [|b c IH]; intros cur Hn; cbn; [reflexivity|].
  destruct (N.eqb b slash) eqn:E; [apply N.eqb_eq in E; subst; cbn in Hn; tauto|].
  rewrite IH by (cbn in Hn; tauto). rewrite <- app_assoc. reflexivity.
Qed.

Lemma split_aux_join c n :
  name_ok (c :: n) = true -> split_aux [] (join (c :: n)) = c :: n.
Proof.
  revert c; induction n as [|d n IH]; intros c H.
  - cbn [join]. cbn in H. rewrite andb_true_r in H. apply comp_ok_spec in H.
    pose proof (split_aux_comp [] c [] (proj2 H)) as E. rewrite !app_nil_r in E.
    rewrite E. cbn. rewrite rev_involutive. reflexivity.
  - change (join (c :: d :: n)) with (c ++ slash :: join (d :: n)).
    cbn [name_ok forallb] in H. apply andb_true_iff in H as [Hc Hr]. apply comp_ok_spec in Hc.
    rewrite split_aux_comp by tauto. cbn [split_aux]. rewrite N.eqb_refl, app_nil_r, rev_involutive.
    f_equal. apply IH. exact Hr.
Qed.

Lemma join_nil_iff n : name_ok n = true -> (join n = [] <-> n = []).
Proof.
  intros H. split; [|intros ->; reflexivity].
  destruct n as [|c n]; [reflexivity|]. cbn in H. apply andb_true_iff in H as [Hc _]. apply comp_ok_spec in Hc.
  destruct n; cbn; destruct c; try tauto; discriminate.
Qed.

Lemma split_join n : name_ok n = true -> split (join n) = n.
Proof.
  intros H. destruct n as [|c n]; [reflexivity|].
  unfold split. destruct (join (c :: n)) eqn:E.
  - apply join_nil_iff in E; [discriminate|exact H].
  - rewrite <- E. apply split_aux_join. exact H.
Qed.

Lemma name_ok_app a b : name_ok (a ++ b) = name_ok a && name_ok b.
Proof. unfold name_ok. apply forallb_app. Qed.

Lemma join_app_cons a c b : join (a ++ c :: b) = match a with [] => join (c :: b) | _ => join a ++ slash :: join (c :: b) end.
Proof.
  induction a as [|x a IH]; [reflexivity|].
  destruct a as [|y a].
  - reflexivity.
  - change (join ((x :: y :: a) ++ c :: b)) with (x ++ slash :: join ((y :: a) ++ c :: b)).
    rewrite IH. change (join (x :: y :: a)) with (x ++ slash :: join (y :: a)).
    rewrite <- app_assoc. reflexivity.
Qed.

Lemma prefixes_In p n : In p (prefixes n) <-> is_prefix p n = true.
Proof.
  revert p; induction n as [|c n IH]; intros p; cbn.
  - destruct p; cbn; [tauto|]. split; [intros [H|[]]; discriminate|discriminate].
  - destruct p as [|d p]; cbn; [tauto|].
    rewrite in_map_iff, andb_true_iff, str_eqb_eq. split.
    + intros [H|[x [[= -> ->] Hx]]]; [discriminate|]. split; [reflexivity|apply IH; exact Hx].
    + intros [-> H]. right. exists p. split; [reflexivity|apply IH; exact H].
Qed.

Lemma prefixes_sorted n :
  forall l1 p l2, prefixes n = l1 ++ p :: l2 ->
  forall q, In q l1 -> (length q < length p)%nat.
Proof.
  induction n as [|c n IH]; intros l1 p l2 H q Hq; cbn [prefixes] in H.
  - destruct l1 as [|x [|y l1]]; [destruct Hq|discriminate H|discriminate H].
  - destruct l1 as [|x l1]; [destruct Hq|]. cbn [app] in H. injection H as <- H.
    apply map_eq_app in H as [l1' [r [E [<- Hr]]]].
    apply map_eq_cons in Hr as [p' [r' [-> [<- _]]]].
    destruct Hq as [<-|Hq]; [cbn; lia|].
    apply in_map_iff in Hq as [q' [<- Hq']]. cbn [length]. apply -> Nat.succ_lt_mono.
    exact (IH _ _ _ E _ Hq').
Qed.

Lemma dg_insert_In x d l : In x (dg_insert d l) <-> x = d \/ In x l.
Proof.
  induction l as [|h t IH]; cbn [dg_insert In].
  - split; intros [H|[]]; left; symmetry; exact H.
  - destruct (dg_eqb d h) eqn:E.
    + apply dg_eqb_eq in E. subst h. cbn [In].
      split; [intros H; right; exact H|intros [->|H]; [left; reflexivity|exact H]].
    + destruct (dg_leb d h); cbn [In].
      * split; intros [H|H]; [left; symmetry; exact H|right; exact H|left; symmetry; exact H|right; exact H].
      * split.
        -- intros [H|H]; [right; left; exact H|]. apply IH in H as [H|H]; [left; exact H|right; right; exact H].
        -- intros [H|[H|H]]; [right; apply IH; left; exact H|left; exact H|right; apply IH; right; exact H].
Qed.
Lemma canon_In x l : In x (canon l) <-> In x l.
Proof.
  induction l as [|h t IH]; [reflexivity|].
  change (canon (h :: t)) with (dg_insert h (canon t)). rewrite dg_insert_In. cbn [In].
  split; intros [H|H]; [left; symmetry; exact H|right; apply IH; exact H|left; symmetry; exact H|right; apply IH; exact H].
Qed.
