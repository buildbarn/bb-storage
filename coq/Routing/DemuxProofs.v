(** C19 — proofs about the demultiplexing composite model. *)
From Coq Require Import List ZArith NArith Bool Arith Lia.
From BBS Require Import Routing.Names Routing.NamesProofs Routing.Trie Routing.TrieProofs
  Routing.Patcher Routing.PatcherProofs Routing.Demux.
Import ListNotations.
Open Scope Z_scope.

(** configuration entries are well-formed instance names (NewInstanceName accepted them) *)
Definition cfg_ok (cfg : list centry) : Prop :=
  forall e, In e cfg -> exists o n, name_ok o = true /\ name_ok n = true /\ e = (join o, join n).

Lemma gval_empty p : gval empty_trie p = -1.
Proof. destruct p; reflexivity. Qed.

Lemma gval_build_from cfg : forall i t p,
  gval (build_from i cfg t) p = last_index_of i cfg p (gval t p).
Proof.
  induction cfg as [|e r IH]; intros i t p; cbn [build_from last_index_of]; [reflexivity|].
  rewrite IH, gval_set, norm_nonneg by lia. reflexivity.
Qed.
Lemma gval_build_trie cfg p : gval (build_trie cfg) p = last_index_of 0 cfg p (-1).
Proof. unfold build_trie. rewrite gval_build_from, gval_empty. reflexivity. Qed.

Lemma reach_build_from cfg : forall i t, reach t -> reach (build_from i cfg t).
Proof.
  induction cfg as [|e r IH]; intros i t H; cbn [build_from]; [exact H|]. apply IH. constructor; [exact H|lia].
Qed.

(** the trie lookup of the getter computes the specification-level owner *)
Lemma glp_owner cfg inst : get_longest_prefix (build_trie cfg) (split inst) = owner cfg inst.
Proof.
  unfold owner. rewrite glp_gval.
  - apply lpv_f_ext. intros p. apply gval_build_trie.
  - apply wf_tval, reach_wf, reach_build_from, reach_empty.
Qed.

Lemma last_index_of_spec cfg : forall i p cur,
  last_index_of i cfg p cur = cur \/
  exists k e, last_index_of i cfg p cur = Z.of_nat (i + k) /\ nth_error cfg k = Some e /\ split (fst e) = p.
Proof.
  induction cfg as [|e r IH]; intros i p cur; cbn [last_index_of]; [left; reflexivity|].
  destruct (IH (S i) p (if name_eqb (split (fst e)) p then Z.of_nat i else cur)) as [H|[k [e' [H1 [H2 H3]]]]].
  - rewrite H. destruct (name_eqb (split (fst e)) p) eqn:E; [|left; reflexivity].
    right. exists O, e. rewrite Nat.add_0_r. apply name_eqb_eq in E. auto.
  - right. exists (S k), e'. rewrite H1. split; [f_equal; lia|]. auto.
Qed.

Lemma owner_spec cfg inst :
  (owner cfg inst = -1 /\ forall q, is_prefix q (split inst) = true -> last_index_of 0 cfg q (-1) < 0)
  \/ exists k e, owner cfg inst = Z.of_nat k /\ nth_error cfg k = Some e /\
                 is_prefix (split (fst e)) (split inst) = true /\
                 last_index_of 0 cfg (split (fst e)) (-1) = Z.of_nat k.
Proof.
  unfold owner. destruct (lpv_f_spec (fun p => last_index_of 0 cfg p (-1)) (split inst))
    as [[p [Hp [Hv [He _]]]]|H]; [|left; exact H].
  right. destruct (last_index_of_spec cfg 0 p (-1)) as [H|[k [e [H1 [H2 H3]]]]]; [lia|].
  exists k, e. rewrite He, H1. cbn. subst p. auto.
Qed.

(** the getter on ANY string: never panics, fails only with InvalidArgument,
    and its answer is determined by the backend name (the matched prefix) *)
Lemma gb_cases cfg inst :
  (get_backend cfg inst = Err INVALID_ARGUMENT /\ owner cfg inst = -1)
  \/ exists k e, get_backend cfg inst = Ok (k, fst e, entry_patcher e) /\ nth_error cfg k = Some e /\
                 owner cfg inst = Z.of_nat k /\
                 last_index_of 0 cfg (split (fst e)) (-1) = Z.of_nat k /\
                 is_prefix (split (fst e)) (split inst) = true.
Proof.
  unfold get_backend. rewrite glp_owner.
  destruct (owner_spec cfg inst) as [[Ho _]|[k [e [Ho [Hn [Hp Hl]]]]]].
  - left. rewrite Ho. split; reflexivity.
  - right. exists k, e. rewrite Ho, (proj2 (Z.ltb_ge _ _) (Nat2Z.is_nonneg k)), Nat2Z.id, Hn. auto.
Qed.
Lemma gb_range cfg inst i key p : get_backend cfg inst = Ok (i, key, p) -> (i < length cfg)%nat.
Proof.
  intros Hg. destruct (gb_cases cfg inst) as [[E _]|[k [e [E [Hn _]]]]]; [congruence|].
  rewrite E in Hg. injection Hg as <- _ _. apply nth_error_Some. congruence.
Qed.
Lemma gb_det cfg x y i i' k k' p p' :
  get_backend cfg x = Ok (i, k, p) -> get_backend cfg y = Ok (i', k', p') -> i = i' \/ k = k' ->
  i = i' /\ k = k' /\ p = p'.
Proof.
  intros Hx Hy H.
  destruct (gb_cases cfg x) as [[E _]|[k1 [e1 [E1 [Hn1 [_ [Hl1 _]]]]]]]; [congruence|].
  destruct (gb_cases cfg y) as [[E _]|[k2 [e2 [E2 [Hn2 [_ [Hl2 _]]]]]]]; [congruence|].
  rewrite E1 in Hx. rewrite E2 in Hy. injection Hx as <- <- <-. injection Hy as <- <- <-.
  (* the index determines the entry, and the key (the entry's prefix) its last index *)
  assert (k1 = k2) as -> by (destruct H as [H|H]; [exact H|rewrite H in Hl1; lia]).
  rewrite Hn1 in Hn2. injection Hn2 as <-. auto.
Qed.

(** The getter, on a well-formed name: either the name is unknown
    (InvalidArgument) or it yields the owner's index, name and patcher, and the
    name is the owner's prefix followed by some rest. *)
Lemma get_backend_spec cfg m : cfg_ok cfg -> name_ok m = true ->
  match get_backend cfg (join m) with
  | Err e => e = INVALID_ARGUMENT /\ owner cfg (join m) = -1
  | Ok (i, key, p) =>
      exists o n r, nth_error cfg i = Some (join o, join n) /\ name_ok o = true /\ name_ok n = true /\
                    name_ok r = true /\ m = o ++ r /\ key = join o /\ p = new_patcher (join o) (join n) /\
                    owner cfg (join m) = Z.of_nat i
  | Panic => False
  end.
Proof.
  intros Hcfg Hm. destruct (gb_cases cfg (join m)) as [[-> Ho]|[k [e [-> [Hn [Ho [_ Hp]]]]]]]; [auto|].
  destruct (Hcfg e (nth_error_In _ _ Hn)) as [o [n [Hok [Hnk ->]]]]. cbn [fst snd] in *.
  rewrite split_join in Hp by exact Hok. rewrite split_join in Hp by exact Hm.
  apply is_prefix_iff in Hp as [r ->].
  exists o, n, r. rewrite name_ok_app in Hm. apply andb_true_iff in Hm as [_ Hr].
  unfold entry_patcher. cbn [fst snd]. repeat split; auto.
Qed.

Section OpsProofs.
  Context {D : Type}.
  Variable cfg : list centry.
  Variable backends : list (backend D).
  Hypothesis Hcfg : cfg_ok cfg.

  Lemma demux_err d e : get_backend cfg (fst d) = Err e ->
    demux_get cfg backends d = (Err e, [])
    /\ (forall c, demux_gfc cfg backends d c = (Err e, []))
    /\ demux_put cfg backends d = (Ok (e, true), []).
  Proof. intros Hg. unfold demux_get, demux_gfc, demux_put. rewrite Hg. auto. Qed.

  Lemma demux_ok d i key p bk : get_backend cfg (fst d) = Ok (i, key, p) -> nth_error backends i = Some bk ->
    demux_get cfg backends d = (b_get bk (patch_digest p d), [CGet i (patch_digest p d)])
    /\ demux_put cfg backends d = (Ok (b_put bk (patch_digest p d), false), [CPut i (patch_digest p d)])
    /\ (forall c, demux_gfc cfg backends d c
                  = (b_gfc bk (patch_digest p d) (patch_digest p c), [CGfc i (patch_digest p d) (patch_digest p c)])).
  Proof. intros Hg Hb. unfold demux_get, demux_gfc, demux_put, with_backend. rewrite Hg, Hb. auto. Qed.

  (** unknown names are rejected with InvalidArgument, no backend is contacted *)
  Lemma demux_unknown m b : name_ok m = true -> owner cfg (join m) < 0 ->
    demux_get cfg backends (join m, b) = (Err INVALID_ARGUMENT, [])
    /\ (forall c, demux_gfc cfg backends (join m, b) c = (Err INVALID_ARGUMENT, []))
    /\ demux_put cfg backends (join m, b) = (Ok (INVALID_ARGUMENT, true), []).
  Proof.
    intros Hm Ho. pose proof (get_backend_spec cfg m Hcfg Hm) as H.
    destruct (get_backend cfg (join m)) as [[[i key] p]|e|] eqn:Hg; [| |destruct H].
    - destruct H as [o [n [r [_ [_ [_ [_ [_ [_ [_ H]]]]]]]]]]. lia.
    - destruct H as [-> _]. exact (demux_err (join m, b) _ Hg).
  Qed.

  (** known names: exactly one call, to the owning backend, with the matched
      prefix replaced by the configured one; the result is that backend's *)
  Lemma demux_known m b : name_ok m = true -> 0 <= owner cfg (join m) ->
    exists i o n r, owner cfg (join m) = Z.of_nat i /\ nth_error cfg i = Some (join o, join n) /\ m = o ++ r /\
      forall bk, nth_error backends i = Some bk ->
        demux_get cfg backends (join m, b) = (b_get bk (join (n ++ r), b), [CGet i (join (n ++ r), b)])
        /\ demux_put cfg backends (join m, b) = (Ok (b_put bk (join (n ++ r), b), false), [CPut i (join (n ++ r), b)])
        /\ (forall cb, demux_gfc cfg backends (join m, b) (join m, cb)
                       = (b_gfc bk (join (n ++ r), b) (join (n ++ r), cb),
                          [CGfc i (join (n ++ r), b) (join (n ++ r), cb)])).
  Proof.
    intros Hm Ho. pose proof (get_backend_spec cfg m Hcfg Hm) as H.
    destruct (get_backend cfg (join m)) as [[[i key] p]|e|] eqn:Hg; [|destruct H as [_ H]; lia|destruct H].
    destruct H as [o [n [r [Hn [Hok [Hnk [Hr [-> [-> [-> Hi]]]]]]]]]].
    exists i, o, n, r. split; [exact Hi|]. split; [exact Hn|]. split; [reflexivity|]. intros bk Hb.
    assert (Hpd : forall x, patch_digest (new_patcher (join o) (join n)) (join (o ++ r), x) = (join (n ++ r), x)).
    { intros x. unfold patch_digest. cbn [fst snd]. rewrite patch_name_spec by auto. reflexivity. }
    destruct (demux_ok (join (o ++ r), b) _ _ _ bk Hg Hb) as [Eg [Ep Ec]].
    rewrite Eg, Ep, !Hpd. split; [reflexivity|]. split; [reflexivity|]. intros cb. rewrite Ec, !Hpd. reflexivity.
  Qed.
End OpsProofs.

Definition tag (pt : partition) : nat * str * patcher := (p_idx pt, p_key pt, p_patcher pt).

Lemma add_to_keys parts key d : map p_key (add_to parts key d) = map p_key parts.
Proof.
  induction parts as [|pt r IH]; [reflexivity|]. cbn [add_to]. destruct (str_eqb (p_key pt) key); cbn; [reflexivity|].
  rewrite IH. reflexivity.
Qed.
Lemma has_part_keys parts k : has_part parts k = existsb (fun x => str_eqb x k) (map p_key parts).
Proof. unfold has_part. induction parts as [|pt r IH]; [reflexivity|]. cbn. rewrite IH. reflexivity. Qed.
Lemma has_part_add_to parts key d k : has_part (add_to parts key d) k = has_part parts k.
Proof. rewrite !has_part_keys, add_to_keys. reflexivity. Qed.
Lemma has_part_false_notin parts k : has_part parts k = false -> ~ In k (map p_key parts).
Proof.
  rewrite has_part_keys. intros H Hin. apply (proj1 (existsb_false _ _) H) in Hin.
  rewrite str_eqb_refl in Hin. discriminate.
Qed.
Lemma has_part_app parts pt k : has_part (parts ++ [pt]) k = has_part parts k || str_eqb (p_key pt) k.
Proof. unfold has_part. rewrite existsb_app. cbn. rewrite orb_false_r. reflexivity. Qed.

Lemma add_to_In parts key d pt' :
  NoDup (map p_key parts) -> In pt' (add_to parts key d) ->
  exists pt, In pt parts /\ tag pt' = tag pt /\
    ((p_key pt = key /\ p_digs pt' = p_digs pt ++ [patch_digest (p_patcher pt) d])
     \/ (p_key pt <> key /\ p_digs pt' = p_digs pt)).
Proof.
  induction parts as [|pt0 r IH]; [intros _ []|]. cbn [map]. intros Hnd. inversion Hnd as [|? ? Hk Hr]; subst.
  cbn [add_to]. destruct (str_eqb (p_key pt0) key) eqn:E.
  - apply str_eqb_eq in E. intros [<-|Hin].
    + exists pt0. split; [left; reflexivity|]. split; [reflexivity|]. left. auto.
    + exists pt'. split; [right; exact Hin|]. split; [reflexivity|]. right. split; [|reflexivity].
      intros Heq. apply Hk. rewrite E, <- Heq. apply in_map. exact Hin.
  - apply str_eqb_neq in E. intros [<-|Hin].
    + exists pt0. split; [left; reflexivity|]. split; [reflexivity|]. right. auto.
    + destruct (IH Hr Hin) as [pt [Hp Hrest]]. exists pt. split; [right; exact Hp|exact Hrest].
Qed.

Section FM.
  Context {D : Type}.
  Variable cfg : list centry.
  Variable backends : list (backend D).
  Notation gb := (get_backend cfg).

  Definition Inv' (owners seen : list digest) (cache : list (str * str)) (parts : list partition) : Prop :=
    (forall inst key, cache_find cache inst = Some key ->
        (exists i p, gb inst = Ok (i, key, p)) /\ has_part parts key = true) /\
    (* [owners] is [seen], plus the digest being added while its partition is still empty *)
    (forall pt, In pt parts -> exists d, In d owners /\ gb (fst d) = Ok (tag pt)) /\
    NoDup (map p_key parts) /\
    (forall pt, In pt parts -> forall x, In x (p_digs pt) <->
        exists d, In d seen /\ (exists i p, gb (fst d) = Ok (i, p_key pt, p)) /\ x = patch_digest (p_patcher pt) d) /\
    (forall d, In d seen -> exists i key p, gb (fst d) = Ok (i, key, p) /\ has_part parts key = true).
  Definition Inv (seen : list digest) := Inv' seen seen.

  Lemma Inv_init : Inv [] [] [].
  Proof.
    unfold Inv. split; [intros ? ? H; discriminate|]. split; [intros ? []|]. split; [constructor|].
    split; [intros ? []|intros ? []].
  Qed.

  Lemma tag_eq pt pt' : tag pt' = tag pt -> p_idx pt' = p_idx pt /\ p_key pt' = p_key pt /\ p_patcher pt' = p_patcher pt.
  Proof. unfold tag. intros [= -> -> ->]. auto. Qed.

  Lemma Inv_step owners seen cache parts d i key p cache' :
    Inv' owners seen cache parts -> incl owners (seen ++ [d]) ->
    gb (fst d) = Ok (i, key, p) -> has_part parts key = true ->
    (cache' = cache \/ cache' = (fst d, key) :: cache) ->
    Inv (seen ++ [d]) cache' (add_to parts key d).
  Proof.
    intros [C1 [C2 [C3 [C4 C5]]]] Hinc Hg Hh Hc. unfold Inv, Inv'. split; [|split; [|split; [|split]]].
    - intros inst k Hf. rewrite has_part_add_to. destruct Hc as [->| ->]; [apply C1; exact Hf|].
      cbn [cache_find] in Hf. destruct (str_eqb (fst d) inst) eqn:E; [|apply C1; exact Hf].
      apply str_eqb_eq in E. subst inst. injection Hf as <-. split; [eauto|exact Hh].
    - intros pt' Hin. destruct (add_to_In _ _ _ _ C3 Hin) as [pt [Hp [Ht _]]]. rewrite Ht.
      destruct (C2 pt Hp) as [d0 [Hd0 Hg0]]. exists d0. split; [apply Hinc, Hd0|exact Hg0].
    - rewrite add_to_keys. exact C3.
    - intros pt' H x. destruct (add_to_In _ _ _ _ C3 H) as [pt [Hp [Ht Hd]]]. apply tag_eq in Ht as [_ [Hk Hpt]].
      rewrite Hk, Hpt. split.
      + destruct Hd as [[Hkey ->]|[Hkey ->]].
        * intros Hx. apply in_app_iff in Hx as [Hx|[<-|[]]].
          -- apply (C4 pt Hp) in Hx as [d' [Hd' Hr]]. exists d'. split; [apply in_or_app; left; exact Hd'|exact Hr].
          -- exists d. split; [apply in_or_app; right; left; reflexivity|]. split; [|reflexivity]. rewrite Hkey. eauto.
        * intros Hx. apply (C4 pt Hp) in Hx as [d' [Hd' Hr]]. exists d'. split; [apply in_or_app; left; exact Hd'|exact Hr].
      + intros [d' [Hd' [Hg' ->]]]. apply in_app_iff in Hd' as [Hd'|[<-|[]]].
        * destruct Hd as [[Hkey ->]|[Hkey ->]]; [apply in_or_app; left|]; apply (C4 pt Hp); exists d'; auto.
        * destruct Hd as [[Hkey ->]|[Hkey ->]]; [apply in_or_app; right; left; reflexivity|].
          destruct Hg' as [i' [p' Hg']]. rewrite Hg in Hg'. injection Hg' as _ Hk' _. congruence.
    - intros d' Hd'. apply in_app_iff in Hd' as [Hd'|[<-|[]]].
      + destruct (C5 d' Hd') as [i' [k' [p' [H1 H2]]]]. exists i', k', p'. rewrite has_part_add_to. auto.
      + exists i, key, p. rewrite has_part_add_to. auto.
  Qed.

  Lemma Inv_extend seen cache parts d i key p :
    Inv seen cache parts -> has_part parts key = false -> gb (fst d) = Ok (i, key, p) ->
    Inv' (seen ++ [d]) seen cache (parts ++ [{| p_key := key; p_idx := i; p_patcher := p; p_digs := [] |}]).
  Proof.
    intros [C1 [C2 [C3 [C4 C5]]]] Hh Hg. unfold Inv'. split; [|split; [|split; [|split]]].
    - intros inst0 k Hf. destruct (C1 _ _ Hf) as [H1 H2]. split; [exact H1|]. rewrite has_part_app, H2. reflexivity.
    - intros pt Hin. apply in_app_iff in Hin as [Hin|[<-|[]]]; [|exists d; split; [apply in_elt|exact Hg]].
      destruct (C2 pt Hin) as [d0 [Hd0 Hg0]]. exists d0. split; [apply in_or_app; left; exact Hd0|exact Hg0].
    - rewrite map_app. cbn [map p_key]. apply NoDup_snoc; [exact C3|apply has_part_false_notin, Hh].
    - intros pt H x. apply in_app_iff in H as [Hin|[<-|[]]]; [apply (C4 _ Hin)|]. cbn [p_digs p_key p_patcher]. split; [intros []|].
      intros [d' [Hd [[i' [p' Hg']] _]]]. exfalso.
      destruct (C5 d' Hd) as [i2 [k2 [p2 [H1 H2]]]]. rewrite Hg' in H1. injection H1 as _ <- _. congruence.
    - intros d' Hd. destruct (C5 d' Hd) as [i2 [k2 [p2 [H1 H2]]]]. exists i2, k2, p2. rewrite has_part_app, H2. auto.
  Qed.

  Lemma fm_partition_spec : forall ds seen cache parts,
    Inv seen cache parts ->
    (exists parts' cache', fm_partition cfg ds cache parts = Ok parts' /\ Inv (seen ++ ds) cache' parts'
                           /\ forall d, In d ds -> exists t, gb (fst d) = Ok t)
    \/ (fm_partition cfg ds cache parts = Err INVALID_ARGUMENT /\ exists d, In d ds /\ gb (fst d) = Err INVALID_ARGUMENT).
  Proof.
    induction ds as [|d r IH]; intros seen cache parts HI.
    - left. exists parts, cache. rewrite app_nil_r. cbn. split; [reflexivity|]. split; [exact HI|intros ? []].
    - cbn [fm_partition].
      assert (Hnext : forall cache' parts', Inv (seen ++ [d]) cache' parts' -> (exists t, gb (fst d) = Ok t) ->
                (exists parts'' cache'', fm_partition cfg r cache' parts' = Ok parts'' /\ Inv (seen ++ d :: r) cache'' parts''
                           /\ forall x, In x (d :: r) -> exists t, gb (fst x) = Ok t)
                \/ (fm_partition cfg r cache' parts' = Err INVALID_ARGUMENT /\ exists x, In x (d :: r) /\ gb (fst x) = Err INVALID_ARGUMENT)).
      { intros cache' parts' HI' Hd. destruct (IH _ _ _ HI') as [[p2 [c2 [H1 [H2 H3]]]]|[H1 [x [Hx1 Hx2]]]].
        - left. exists p2, c2. split; [exact H1|]. rewrite <- app_assoc in H2. split; [exact H2|].
          intros x [<-|Hx]; [exact Hd|apply H3; exact Hx].
        - right. split; [exact H1|]. exists x. split; [right; exact Hx1|exact Hx2]. }
      destruct (cache_find cache (fst d)) as [key|] eqn:Ec.
      + pose proof HI as [C1 _]. destruct (C1 _ _ Ec) as [[i [p Hg]] Hh].
        apply Hnext; [|eauto]. eapply Inv_step; [exact HI|apply incl_appl, incl_refl|exact Hg|exact Hh|left; reflexivity].
      + destruct (gb_cases cfg (fst d)) as [[E _]|[k [e [E _]]]]; rewrite E.
        * right. split; [reflexivity|]. exists d. split; [left; reflexivity|exact E].
        * apply Hnext; [|eauto]. destruct (has_part parts (fst e)) eqn:Eh.
          -- eapply Inv_step; [exact HI|apply incl_appl, incl_refl|exact E|exact Eh|right; reflexivity].
          -- eapply Inv_step; [eapply Inv_extend; [exact HI|exact Eh|exact E]|apply incl_refl|exact E| |right; reflexivity].
             rewrite has_part_app. cbn [p_key]. rewrite str_eqb_refl. apply orb_true_r.
  Qed.

  Definition fm_call_of (pt : partition) : call := CFm (p_idx pt) (canon (p_digs pt)).

  Lemma fm_calls_app (miss : partition -> list digest) rest : forall parts acc calls,
    (forall pt, In pt parts ->
       with_backend backends (p_idx pt) (fun b => b_fm b (canon (p_digs pt))) Panic = Ok (miss pt)) ->
    fm_calls backends (parts ++ rest) acc calls
    = fm_calls backends rest (acc ++ flat_map (fun pt => map (unpatch_digest (p_patcher pt)) (miss pt)) parts)
               (calls ++ map fm_call_of parts).
  Proof.
    induction parts as [|pt r IH]; intros acc calls H.
    - cbn. rewrite !app_nil_r. reflexivity.
    - cbn [app fm_calls]. cbv zeta. rewrite (H pt (or_introl eq_refl)), IH by (intros x Hx; apply H; right; exact Hx).
      cbn [flat_map map]. rewrite <- !app_assoc. reflexivity.
  Qed.
  Lemma fm_calls_eq (miss : partition -> list digest) parts acc calls :
    (forall pt, In pt parts ->
       with_backend backends (p_idx pt) (fun b => b_fm b (canon (p_digs pt))) Panic = Ok (miss pt)) ->
    fm_calls backends parts acc calls
    = (Ok (canon (acc ++ flat_map (fun pt => map (unpatch_digest (p_patcher pt)) (miss pt)) parts)),
       calls ++ map fm_call_of parts).
  Proof. intros H. pose proof (fm_calls_app miss [] parts acc calls H) as E. rewrite app_nil_r in E. exact E. Qed.
End FM.

Lemma has_part_In parts key : has_part parts key = true -> exists pt, In pt parts /\ p_key pt = key.
Proof.
  unfold has_part. intros H. apply existsb_exists in H as [pt [Hin E]]. apply str_eqb_eq in E. eauto.
Qed.

Lemma Inv_part_digs cfg ds cache parts pt x : Inv cfg ds cache parts -> In pt parts ->
  (In x (p_digs pt) <->
   exists d, In d ds /\ get_backend cfg (fst d) = Ok (tag pt) /\ x = patch_digest (p_patcher pt) d).
Proof.
  intros [_ [C2 [_ [C4 _]]]] Hp. destruct (C2 pt Hp) as [d0 [_ Hi]]. unfold tag in *. split.
  - intros Hx. apply (C4 pt Hp) in Hx as [d [Hd [[i [p Hg]] ->]]].
    exists d. split; [exact Hd|]. split; [|reflexivity].
    destruct (gb_det _ _ _ _ _ _ _ _ _ Hg Hi (or_intror eq_refl)) as [-> [_ ->]]. exact Hg.
  - intros [d [Hd [Hg ->]]]. apply (C4 pt Hp). exists d. split; [exact Hd|]. split; [eauto|reflexivity].
Qed.
Lemma Inv_dig_part cfg ds cache parts d : Inv cfg ds cache parts -> In d ds ->
  exists pt, In pt parts /\ get_backend cfg (fst d) = Ok (tag pt).
Proof.
  intros [_ [C2 [_ [_ C5]]]] Hd. destruct (C5 d Hd) as [i [key [p [Hg Hh]]]].
  apply has_part_In in Hh as [pt [Hp Hk]]. exists pt. split; [exact Hp|].
  destruct (C2 pt Hp) as [d0 [_ Hi]]. unfold tag in *. rewrite Hk in *.
  destruct (gb_det _ _ _ _ _ _ _ _ _ Hg Hi (or_intror eq_refl)) as [-> [_ ->]]. exact Hg.
Qed.

Section FMParts.
  Variable cfg : list centry.
  Variable ds : list digest.
  Variable cache : list (str * str).
  Variable parts : list partition.
  Variable present : nat -> digest -> bool.
  Hypothesis HI : Inv cfg ds cache parts.
  Hypothesis Hun : forall d i key p, In d ds -> get_backend cfg (fst d) = Ok (i, key, p) ->
    unpatch_digest p (patch_digest p d) = d.

  Lemma fm_call_spec pt x : In pt parts ->
    (In x (canon (p_digs pt)) <->
     exists d key p, In d ds /\ get_backend cfg (fst d) = Ok (p_idx pt, key, p) /\ x = patch_digest p d).
  Proof.
    intros Hpt. rewrite canon_In, (Inv_part_digs _ _ _ _ _ _ HI Hpt). split.
    - intros [d [Hd [Hg ->]]]. exists d, (p_key pt), (p_patcher pt). auto.
    - intros [d [key [p [Hd [Hg ->]]]]]. destruct HI as [_ [C2 _]]. destruct (C2 pt Hpt) as [d0 [_ Hi]]. unfold tag in *.
      destruct (gb_det _ _ _ _ _ _ _ _ _ Hg Hi (or_introl eq_refl)) as [_ [-> ->]]. exists d. auto.
  Qed.

  Lemma fm_missing_spec x :
    In x (flat_map (fun pt => map (unpatch_digest (p_patcher pt))
                                (filter (fun y => negb (present (p_idx pt) y)) (canon (p_digs pt)))) parts)
    <-> In x ds /\ exists i key p, get_backend cfg (fst x) = Ok (i, key, p) /\ present i (patch_digest p x) = false.
  Proof.
    rewrite in_flat_map. split.
    - intros [pt [Hpt Hx]]. apply in_map_iff in Hx as [y [<- Hy]]. apply filter_In in Hy as [Hy Hn].
      apply canon_In, (Inv_part_digs _ _ _ _ _ _ HI Hpt) in Hy as [d [Hd [Hg ->]]]. apply negb_true_iff in Hn.
      rewrite (Hun d _ _ _ Hd Hg). split; [exact Hd|]. exists (p_idx pt), (p_key pt), (p_patcher pt). auto.
    - intros [Hd [i [key [p [Hg Hpr]]]]]. destruct (Inv_dig_part _ _ _ _ x HI Hd) as [pt [Hpt Hg']].
      rewrite Hg in Hg'. injection Hg' as -> -> ->.
      exists pt. split; [exact Hpt|]. apply in_map_iff. exists (patch_digest (p_patcher pt) x).
      split; [exact (Hun x _ _ _ Hd Hg)|]. apply filter_In. split; [|rewrite Hpr; reflexivity].
      apply canon_In, (Inv_part_digs _ _ _ _ _ _ HI Hpt). exists x. auto.
  Qed.
End FMParts.

Section FMTop.
  Context {D : Type}.
  Variable cfg : list centry.
  Variable backends : list (backend D).
  Variable present : nat -> digest -> bool.
  Hypothesis Hcfg : cfg_ok cfg.
  Hypothesis Hlen : length backends = length cfg.
  Hypothesis Hhonest : forall i bk, nth_error backends i = Some bk ->
    forall q, b_fm bk q = Ok (filter (fun d => negb (present i d)) q).

  Lemma unpatch_patch_owned d i key p :
    (exists m, name_ok m = true /\ fst d = join m) -> get_backend cfg (fst d) = Ok (i, key, p) ->
    unpatch_digest p (patch_digest p d) = d.
  Proof.
    intros [m [Hm Hd]] Hg. pose proof (get_backend_spec cfg m Hcfg Hm) as H. rewrite <- Hd, Hg in H.
    destruct H as [o [n [r [_ [Ho [Hn [Hr [-> [_ [-> _]]]]]]]]]].
    destruct d as [inst b]. cbn [fst] in Hd. subst inst. apply unpatch_patch_digest; auto.
  Qed.

  Lemma demux_fm_correct ds :
    (forall d, In d ds -> exists m, name_ok m = true /\ fst d = join m) ->
    ((exists d, In d ds /\ owner cfg (fst d) < 0) -> demux_fm cfg backends ds = (Err INVALID_ARGUMENT, []))
    /\ ((forall d, In d ds -> 0 <= owner cfg (fst d)) ->
        exists res calls, demux_fm cfg backends ds = (Ok res, calls) /\
          (forall d, In d res <-> In d ds /\ exists i key p, get_backend cfg (fst d) = Ok (i, key, p)
                                                         /\ present i (patch_digest p d) = false) /\
          (forall i q, In (CFm i q) calls ->
             forall x, In x q <-> exists d key p, In d ds /\ get_backend cfg (fst d) = Ok (i, key, p)
                                                  /\ x = patch_digest p d) /\
          (forall c, In c calls -> exists i q, c = CFm i q)).
  Proof.
    intros Hds. unfold demux_fm.
    destruct (fm_partition_spec cfg (canon ds) [] [] [] (Inv_init cfg))
      as [[parts [cache [Hp [HI Hok]]]]|[Hp [d0 [Hd0 Hg0]]]]; rewrite Hp.
    - cbn [app] in HI. pose proof HI as [_ [C2 _]]. split.
      + intros [d [Hd Ho]]. exfalso. destruct (Hok d) as [t Ht]; [rewrite canon_In; exact Hd|].
        destruct (gb_cases cfg (fst d)) as [[E _]|[k [e [_ [_ [E _]]]]]]; [congruence|lia].
      + intros _.
        assert (Hbk : forall pt, In pt parts -> exists bk, nth_error backends (p_idx pt) = Some bk).
        { intros pt Hin. destruct (C2 pt Hin) as [d0 [_ Hi]]. apply gb_range in Hi.
          destruct (nth_error backends (p_idx pt)) eqn:En; [eauto|]. apply nth_error_None in En. lia. }
        set (miss := fun pt => filter (fun d => negb (present (p_idx pt) d)) (canon (p_digs pt))).
        rewrite (fm_calls_eq backends miss parts [] []).
        2:{ intros pt Hpt. destruct (Hbk pt Hpt) as [bk Hb]. unfold with_backend. rewrite Hb. apply (Hhonest _ _ Hb). }
        cbn [app]. eexists _, _. split; [reflexivity|].
        assert (Hun : forall d i key p, In d (canon ds) -> get_backend cfg (fst d) = Ok (i, key, p) ->
                  unpatch_digest p (patch_digest p d) = d).
        { intros d i key p Hd. rewrite canon_In in Hd. apply unpatch_patch_owned, Hds, Hd. }
        split; [|split].
        * intros x. unfold miss. rewrite canon_In, (fm_missing_spec cfg _ cache parts present HI Hun), canon_In. reflexivity.
        * intros i q Hin x. apply in_map_iff in Hin as [pt [[= <- <-] Hpt]].
          rewrite (fm_call_spec cfg _ cache parts HI pt x Hpt). split;
            intros [d [key [p [Hd H]]]]; exists d, key, p; (split; [apply canon_In; exact Hd|exact H]).
        * intros c Hin. apply in_map_iff in Hin as [pt [<- _]]. unfold fm_call_of. eauto.
    - split; [reflexivity|]. intros Hall. exfalso. rewrite canon_In in Hd0. specialize (Hall d0 Hd0).
      destruct (gb_cases cfg (fst d0)) as [[_ E]|[k [e [E _]]]]; [lia|congruence].
  Qed.
End FMTop.
