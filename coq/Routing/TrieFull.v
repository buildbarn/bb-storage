(** C19 — the no-dead-branch invariant of the instance-name trie and the full
    specification of Remove.

    [nodead t]: every node of [t] other than the root carries a value or has
    children ([live]).  Consequently every such node lies on the path to a
    registered name ([live_has_name]), every leaf carries a value, and a trie
    without registered names is the empty root.  The invariant holds in every
    trie reachable from the empty one by Set (values >= 0) and successful
    Remove ([reach_nodead]); with it Remove's result is "the trie became empty"
    in both directions ([remove_to_map_full]). *)
From Coq Require Import List ZArith NArith Bool Arith Lia.
From BBS Require Import Routing.Names Routing.NamesProofs Routing.Trie Routing.TrieProofs.
Import ListNotations.
Open Scope Z_scope.

Definition live (s : trie) : Prop := 0 <= tval s \/ tch s <> [].

Inductive nodead : trie -> Prop :=
| nodead_node v ch :
    (forall c s, In (c, s) ch -> live s) ->
    (forall c s, In (c, s) ch -> nodead s) ->
    nodead (Node v ch).

Lemma nodead_inv t : nodead t ->
  (forall c s, In (c, s) (tch t) -> live s) /\ (forall c s, In (c, s) (tch t) -> nodead s).
Proof. destruct 1. cbn [tch]. split; assumption. Qed.

Lemma nodead_empty : nodead empty_trie.
Proof. constructor; intros ? ? []. Qed.

Lemma nodead_lookup t c s : nodead t -> lookup (tch t) c = Some s -> live s /\ nodead s.
Proof.
  intros H El. apply nodead_inv in H as [H1 H2]. apply lookup_In in El as [k Hk].
  split; [eapply H1|eapply H2]; exact Hk.
Qed.

Lemma live_has_name t : nodead t -> live t -> exists m, 0 <= gval t m.
Proof.
  induction 1 as [v ch Hl Hn IH]. intros [Hv|Hc].
  - exists []. cbn [gval tval] in *. rewrite norm_nonneg by exact Hv. exact Hv.
  - cbn [tch] in Hc. destruct ch as [|[c s] r]; [congruence|].
    destruct (IH c s (or_introl eq_refl) (Hl c s (or_introl eq_refl))) as [m Hm].
    exists (c :: m). cbn [gval tch lookup]. rewrite str_eqb_refl. exact Hm.
Qed.

Lemma nodead_no_names_empty t : nodead t -> (forall m, gval t m = -1) -> is_empty_root t = true.
Proof.
  intros Hn Hall. unfold is_empty_root. apply andb_true_iff. split.
  - specialize (Hall []). cbn [gval] in Hall. unfold norm in Hall.
    destruct (0 <=? tval t) eqn:E; [apply Z.leb_le in E; lia|]. apply Z.leb_gt in E. apply Z.ltb_lt. exact E.
  - destruct (tch t) as [|[c s] r] eqn:Ec; [reflexivity|]. exfalso.
    assert (Hlive : live t) by (right; rewrite Ec; discriminate).
    destruct (live_has_name t Hn Hlive) as [m Hm]. rewrite Hall in Hm. lia.
Qed.

Lemma upd_nonnil ch c x : upd ch c x <> [].
Proof. destruct ch as [|[k s] r]; cbn; [discriminate|]. destruct (str_eqb k c); discriminate. Qed.

Lemma live_set t n v : 0 <= v -> live (set t n v).
Proof.
  intros Hv. destruct n as [|c n]; cbn [set].
  - left. exact Hv.
  - right. cbn [tch]. apply upd_nonnil.
Qed.

Lemma nodead_upd t c x : nodead t -> live x -> nodead x -> nodead (Node (tval t) (upd (tch t) c x)).
Proof.
  intros Hn Hlx Hnx. apply nodead_inv in Hn as [Hl Hd].
  constructor; intros k s Hin; apply upd_In in Hin as [Hin| ->]; eauto.
Qed.

Lemma nodead_set n : forall t v, nodead t -> 0 <= v -> nodead (set t n v).
Proof.
  induction n as [|c n IH]; intros t v Hn Hv; cbn [set].
  - destruct Hn as [v0 ch Hl Hd]. cbn [tch]. constructor; assumption.
  - apply nodead_upd; [exact Hn|apply live_set; exact Hv|]. apply IH; [|exact Hv].
    destruct (lookup (tch t) c) as [s0|] eqn:El; [|apply nodead_empty].
    eapply nodead_lookup; eauto.
Qed.

Lemma del_nonnil ch c : NoDup (map fst ch) -> (1 < length ch)%nat -> del ch c <> [].
Proof.
  destruct ch as [|[k1 s1] [|[k2 s2] r]]; cbn [length]; try lia. intros Hnd _.
  cbn [del]. destruct (str_eqb k1 c) eqn:E1; [|discriminate].
  destruct (str_eqb k2 c) eqn:E2; [|discriminate].
  apply str_eqb_eq in E1, E2. subst. cbn in Hnd. inversion Hnd; subst. cbn in *. tauto.
Qed.

Lemma nodead_del t c : nodead t -> nodead (Node (tval t) (del (tch t) c)).
Proof.
  intros Hn. apply nodead_inv in Hn as [Hl Hd].
  constructor; intros k s Hin; apply del_In in Hin; eauto.
Qed.

Lemma live_del t first c : wf t -> captures t first = true -> first = false ->
  live (Node (tval t) (del (tch t) c)).
Proof.
  intros Hwf Hc ->. unfold captures in Hc. rewrite orb_false_r in Hc. apply orb_true_iff in Hc as [Hc|Hc].
  - left. cbn [tval]. apply Z.leb_le. exact Hc.
  - right. cbn [tch]. inversion Hwf; subst. cbn [tch] in *. apply del_nonnil; [assumption|].
    apply Z.ltb_lt in Hc. lia.
Qed.

Lemma nodead_remove_ne n t first c t' : wf t -> nodead t -> remove_ne t first c n = Ok (Some t') ->
  nodead t' /\ (first = false -> live t').
Proof.
  intros Hwf Hn Hr.
  refine (remove_ne_ind (fun t first _ o => wf t -> nodead t -> forall t', o = Some t' ->
            nodead t' /\ (first = false -> live t')) _ _ _ _ _ _ _ Hr Hwf Hn _ eq_refl).
  - intros s _ Hs s'. unfold reset. destruct (tch s) eqn:Es; intros [= <-]. rewrite <- Es.
    apply nodead_inv in Hs as [Hl Hd]. split; [constructor; assumption|]. intros _. right. cbn [tch]. congruence.
  - intros t0 f0 c0 s n0 o El IH Hwf0 Hn0 t0'. destruct (nodead_lookup _ _ _ Hn0 El) as [_ Hs].
    destruct o as [s'|]; cbn [rebuild]; [|destruct (captures t0 f0) eqn:Ec]; intros [= <-].
    + destruct (IH (wf_lookup _ _ _ Hwf0 El) Hs _ eq_refl) as [Hn' Hl']. split.
      * apply nodead_upd; auto.
      * intros _. right. cbn [tch]. apply upd_nonnil.
    + split; [apply nodead_del; exact Hn0|]. intros Hf. eapply live_del; eauto.
Qed.

Lemma nodead_remove t n t' b : wf t -> nodead t -> remove t n = Ok (t', b) -> nodead t'.
Proof.
  intros Hwf Hn. destruct n as [|c n]; cbn [remove].
  - intros [= <- _]. apply nodead_inv in Hn as [Hl Hd]. constructor; assumption.
  - destruct (remove_ne t true c n) as [[t0|]|e|] eqn:Er; try discriminate. intros [= <- _].
    eapply nodead_remove_ne; eauto.
Qed.

Lemma reach_nodead t : reach t -> nodead t.
Proof.
  induction 1 as [|t n v Hr IH Hv|t n t' b Hr IH Hrm].
  - apply nodead_empty.
  - apply nodead_set; assumption.
  - eapply nodead_remove; eauto. apply reach_wf. exact Hr.
Qed.

Fixpoint subtrie (t : trie) (p : name) : option trie :=
  match p with
  | [] => Some t
  | c :: p' => match lookup (tch t) c with Some s => subtrie s p' | None => None end
  end.

Lemma gval_subtrie p : forall t s m, subtrie t p = Some s -> gval t (p ++ m) = gval s m.
Proof.
  induction p as [|c p IH]; intros t s m; cbn [subtrie app].
  - intros [= ->]. reflexivity.
  - cbn [gval]. destruct (lookup (tch t) c) as [s0|]; [|discriminate]. apply IH.
Qed.

Lemma nodead_subtrie p : forall t s, nodead t -> subtrie t p = Some s -> p <> [] -> live s /\ nodead s.
Proof.
  induction p as [|c p IH]; intros t s Hn; cbn [subtrie]; [congruence|].
  destruct (lookup (tch t) c) as [s0|] eqn:El; [|discriminate]. intros Hs _.
  destruct (nodead_lookup _ _ _ Hn El) as [Hl0 Hn0].
  destruct p as [|d p]; [cbn in Hs; injection Hs as <-; auto|].
  eapply IH; eauto. discriminate.
Qed.

Lemma reach_no_dead_branch t p s : reach t -> subtrie t p = Some s -> p <> [] ->
  (exists m, 0 <= assoc_get (to_map t) (p ++ m)) /\ (tch s = [] -> 0 <= assoc_get (to_map t) p).
Proof.
  intros Hr Hs Hp. pose proof (reach_wf _ Hr) as Hwf.
  destruct (nodead_subtrie p t s (reach_nodead _ Hr) Hs Hp) as [Hl Hn]. split.
  - destruct (live_has_name s Hn Hl) as [m Hm]. exists m.
    rewrite (to_map_gval _ _ Hwf), (gval_subtrie p t s m Hs). exact Hm.
  - intros Hc. destruct Hl as [Hv|Hne]; [|contradiction].
    rewrite (to_map_gval _ _ Hwf). rewrite <- (app_nil_r p), (gval_subtrie p t s [] Hs).
    cbn [gval]. rewrite norm_nonneg by exact Hv. exact Hv.
Qed.

Lemma reach_no_names_empty t : reach t -> (forall m, assoc_get (to_map t) m = -1) -> t = empty_trie.
Proof.
  intros Hr Hall. pose proof (reach_wf _ Hr) as Hwf.
  assert (He : is_empty_root t = true).
  { apply nodead_no_names_empty; [apply reach_nodead; exact Hr|].
    intros m. rewrite <- (to_map_gval _ _ Hwf). apply Hall. }
  unfold is_empty_root in He. apply andb_true_iff in He as [Hv Hc]. apply Z.ltb_lt in Hv.
  destruct t as [v ch]. cbn [tval tch] in *. inversion Hwf; subst.
  destruct ch; [|discriminate]. unfold empty_trie. f_equal. lia.
Qed.

(** Remove of any name on which the Go code does not dereference nil (the
    node of the name exists, whether or not it carries a value): the result
    says whether the trie became empty.  Covers Remove of an inner node
    without a value (a no-op). *)
Lemma remove_ok_full t n t' b : reach t -> remove t n = Ok (t', b) ->
  (b = true <-> forall m, assoc_get (to_map t') m = -1).
Proof.
  intros H Hr.
  assert (Hr' : reach t') by (econstructor; eauto).
  pose proof (reach_wf _ Hr') as Hwf'.
  destruct (remove_ok _ _ _ _ Hr) as [-> _].
  split.
  - intros Hb m. rewrite (to_map_gval m _ Hwf'). apply is_empty_root_gval, Hb.
  - intros Hall. apply nodead_no_names_empty; [apply reach_nodead; exact Hr'|].
    intros m. rewrite <- (to_map_gval m _ Hwf'). apply Hall.
Qed.

Lemma remove_to_map_full t n : reach t -> 0 <= assoc_get (to_map t) n ->
  exists t' b, remove t n = Ok (t', b) /\
    (forall m, assoc_get (to_map t') m = assoc_get (assoc_remove (to_map t) n) m) /\
    (b = true <-> forall m, assoc_get (to_map t') m = -1).
Proof.
  intros H Hreg. rewrite (to_map_gval n _ (reach_wf _ H)) in Hreg.
  destruct (remove_defined t n (or_intror Hreg)) as [t' [b Hr]].
  exists t', b. split; [exact Hr|]. split; [exact (remove_ok_to_map _ _ _ _ H Hr)|exact (remove_ok_full _ _ _ _ H Hr)].
Qed.
