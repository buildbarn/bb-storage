(** C19 — the trie part of the monitor [mon19] is silent on the model's own
    output: for every trie history (kind 0 input) on which the model does not
    panic (no Remove of a name whose node does not exist), all three trie
    clauses (1 longest prefix, 2 exact lookup / membership, 3 Remove's "became
    empty" result) hold of what the model answers.  Needs the full Remove
    specification (TrieFull.v) for clause 3. *)
From Coq Require Import List ZArith NArith Bool Arith Lia.
From BBS Require Import Common.Sx Common.SxFactsMA Routing.Names Routing.NamesProofs Routing.Trie
  Routing.TrieProofs Routing.TrieFull Run.R19.
Import ListNotations.
Open Scope Z_scope.

(** the monitor's association list [m] and the model's trie [t] stand for the same map *)
Definition mrel (m : list (list comp * Z)) (t : trie) : Prop :=
  reach t /\ (forall k, assoc_get m k = assoc_get (to_map t) k) /\ Forall (fun e => 0 <= snd e) m.

Lemma mrel_init : mrel [] empty_trie.
Proof. split; [constructor|]. split; [intros k; destruct k; reflexivity|constructor]. Qed.

Lemma is_nil_iff (m : list (list comp * Z)) : Forall (fun e => 0 <= snd e) m ->
  (is_nil m = true <-> forall k, assoc_get m k = -1).
Proof.
  intros H. destruct m as [|[k v] r].
  - split; intros; reflexivity.
  - split; [discriminate|]. intros H'. exfalso. specialize (H' k). cbn in H'.
    rewrite name_eqb_refl in H'. inversion H; subst. cbn in *. lia.
Qed.

Lemma Forall_filter {T} (P : T -> Prop) f l : Forall P l -> Forall P (filter f l).
Proof.
  intros H. apply Forall_forall. intros x Hx. apply filter_In in Hx as [Hx _].
  rewrite Forall_forall in H. apply H. exact Hx.
Qed.

Lemma mrel_set m t n v : mrel m t -> 0 <= v -> mrel (assoc_set m n v) (set t n v).
Proof.
  intros (Hr & Hm & Hp) Hv. split; [constructor; assumption|]. split.
  - intros k. rewrite (set_to_map t n v Hr Hv k), !assoc_get_set, Hm. reflexivity.
  - unfold assoc_set. constructor; [exact Hv|apply Forall_filter; exact Hp].
Qed.

Lemma mrel_remove m t n t' b : mrel m t -> remove t n = Ok (t', b) ->
  mrel (assoc_remove m n) t' /\ Bool.eqb b (is_nil (assoc_remove m n)) = true.
Proof.
  intros (Hr & Hm & Hp) Hrm.
  assert (Hr' : reach t') by (econstructor; eauto).
  assert (Hm' : forall k, assoc_get (assoc_remove m n) k = assoc_get (to_map t') k).
  { intros k. rewrite (remove_ok_to_map _ _ _ _ Hr Hrm), !assoc_get_remove, Hm. reflexivity. }
  assert (Hp' : Forall (fun e => 0 <= snd e) (assoc_remove m n)) by (apply Forall_filter; exact Hp).
  split; [split; [exact Hr'|split; [exact Hm'|exact Hp']]|].
  apply Bool.eqb_true_iff, Bool.eq_true_iff_eq.
  rewrite (remove_ok_full t n t' b Hr Hrm), (is_nil_iff _ Hp').
  split; intros H k; [rewrite Hm'|rewrite <- Hm']; apply H.
Qed.

Definition kind (z : Z) : nat :=
  match z with 0 => 0%nat | 1 => 1%nat | 2 => 2%nat | 3 => 3%nat | 4 => 4%nat | _ => 5%nat end.

Lemma zmatch {T} z (a0 a1 a2 a3 a4 d : T) :
  match z with 0 => a0 | 1 => a1 | 2 => a2 | 3 => a3 | 4 => a4 | _ => d end =
  match kind z with 0%nat => a0 | 1%nat => a1 | 2%nat => a2 | 3%nat => a3 | 4%nat => a4 | _ => d end.
Proof.
  destruct z as [|p|p]; try reflexivity;
    do 3 (try (destruct p as [p|p|]; try reflexivity)).
Qed.

Lemma option_map_cons_some {T} (x : T) o l : option_map (cons x) o = Some l ->
  exists xs, o = Some xs /\ l = x :: xs.
Proof. destruct o as [xs|]; cbn; [intros [= <-]; eauto|discriminate]. Qed.

Lemma option_map_cons_defined {T} (x : T) o : o <> None -> option_map (cons x) o <> None.
Proof. destruct o; [discriminate|congruence]. Qed.

Lemma mon_trie_silent ops : forall t m l, mrel m t -> run_trie ops t = Some l -> mon_trie ops l m = [].
Proof.
  induction ops as [|o r IH]; intros t m l Hrel Hrun; [reflexivity|].
  destruct l as [|x xs]; [reflexivity|].
  pose proof Hrel as (Hr & Hm & Hp).
  cbn [run_trie] in Hrun. cbv zeta in Hrun. rewrite zmatch in Hrun.
  cbn [mon_trie]. cbv zeta. rewrite zmatch.
  destruct (kind (sx_Z (sx_nth o 0))) as [|[|[|[|[|k5]]]]].
  - (* Set *)
    apply option_map_cons_some in Hrun as (xs' & Hrun & [= -> ->]).
    destruct (Z.ltb_spec (sx_Z (sx_nth o 2)) 0) as [Hneg|Hv]; [reflexivity|].
    eapply IH; [|exact Hrun]. apply mrel_set; assumption.
  - (* Remove *)
    destruct (remove t (split (dec_str (sx_nth o 1)))) as [[t' b]|e|] eqn:Hrm; try discriminate.
    apply option_map_cons_some in Hrun as (xs' & Hrun & [= -> ->]).
    destruct (mrel_remove _ _ _ _ _ Hrel Hrm) as [Hrel' Hb].
    rewrite sx_bool_of_bool, Hb. cbn [app]. eapply IH; eauto.
  - (* GetExact *)
    apply option_map_cons_some in Hrun as (xs' & Hrun & [= -> ->]). cbn [sx_Z].
    rewrite (get_exact_to_map t _ Hr), <- Hm, Z.eqb_refl. cbn [app]. eapply IH; eauto.
  - (* GetLongestPrefix *)
    apply option_map_cons_some in Hrun as (xs' & Hrun & [= -> ->]). cbn [sx_Z].
    rewrite (glp_to_map t _ Hr). unfold longest_prefix_value.
    rewrite (lpv_f_ext (assoc_get m) (assoc_get (to_map t)) _ Hm), Z.eqb_refl. cbn [app]. eapply IH; eauto.
  - (* ContainsPrefix *)
    apply option_map_cons_some in Hrun as (xs' & Hrun & [= -> ->]).
    rewrite sx_bool_of_bool, (contains_prefix_to_map t _ Hr). unfold has_prefix.
    rewrite (hasp_f_ext (assoc_get m) (assoc_get (to_map t)) _ Hm), Bool.eqb_reflx. cbn [app]. eapply IH; eauto.
  - (* ContainsExact *)
    apply option_map_cons_some in Hrun as (xs' & Hrun & [= -> ->]).
    rewrite sx_bool_of_bool, (contains_exact_to_map t _ Hr), Hm, Bool.eqb_reflx. cbn [app]. eapply IH; eauto.
Qed.

Theorem mon19_silent_on_trie_model : forall inp,
  sx_Z (sx_nth inp 0) = 0 ->
  run_trie (sx_list (sx_nth inp 1)) empty_trie <> None ->
  mon19 inp (run19 inp) = [].
Proof.
  intros inp Hk Hnp. unfold mon19, run19. rewrite Hk.
  destruct (run_trie (sx_list (sx_nth inp 1)) empty_trie) as [l|] eqn:Hrun; [|congruence].
  cbn [sx_list]. eapply mon_trie_silent; [apply mrel_init|exact Hrun].
Qed.

(** and the model panics only on a Remove of a name whose node does not exist:
    if every Remove in the history is of a currently registered name and every
    Set carries a value >= 0, no panic *)
Fixpoint removes_registered (ops : list sx) (m : list (list comp * Z)) : Prop :=
  match ops with
  | [] => True
  | o :: r =>
      let n := split (dec_str (sx_nth o 1)) in
      match kind (sx_Z (sx_nth o 0)) with
      | 0%nat => 0 <= sx_Z (sx_nth o 2) /\ removes_registered r (assoc_set m n (sx_Z (sx_nth o 2)))
      | 1%nat => 0 <= assoc_get m n /\ removes_registered r (assoc_remove m n)
      | _ => removes_registered r m
      end
  end.

Lemma run_trie_no_panic ops : forall t m, mrel m t -> removes_registered ops m -> run_trie ops t <> None.
Proof.
  induction ops as [|o r IH]; intros t m Hrel Hreg; [discriminate|].
  pose proof Hrel as (Hr & Hm & Hp).
  cbn [run_trie removes_registered] in *. cbv zeta in *. rewrite zmatch.
  destruct (kind (sx_Z (sx_nth o 0))) as [|[|[|[|[|k5]]]]] eqn:Ek.
  - destruct Hreg as [Hv Hreg]. apply option_map_cons_defined, (IH _ _ (mrel_set _ _ _ _ Hrel Hv) Hreg).
  - destruct Hreg as [Hn Hreg]. rewrite Hm in Hn.
    destruct (remove_to_map_full t _ Hr Hn) as (t' & b & Hrm & _). rewrite Hrm.
    destruct (mrel_remove _ _ _ _ _ Hrel Hrm) as [Hrel' _]. apply option_map_cons_defined, (IH _ _ Hrel' Hreg).
  - apply option_map_cons_defined, (IH _ _ Hrel Hreg).
  - apply option_map_cons_defined, (IH _ _ Hrel Hreg).
  - apply option_map_cons_defined, (IH _ _ Hrel Hreg).
  - apply option_map_cons_defined, (IH _ _ Hrel Hreg).
Qed.

Theorem mon19_silent_on_trie_model_registered : forall inp,
  sx_Z (sx_nth inp 0) = 0 ->
  removes_registered (sx_list (sx_nth inp 1)) [] ->
  run_trie (sx_list (sx_nth inp 1)) empty_trie <> None /\ mon19 inp (run19 inp) = [].
Proof.
  intros inp Hk Hreg.
  pose proof (run_trie_no_panic _ _ _ mrel_init Hreg) as Hnp.
  split; [exact Hnp|apply mon19_silent_on_trie_model; assumption].
Qed.
