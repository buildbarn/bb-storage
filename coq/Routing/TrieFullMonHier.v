(** C19 — the hierarchical-decorator part of the monitor [mon19] is silent on
    the model's own output: for every backend description [b] (present set,
    error names, FindMissing faults) and every operation [op] (Get,
    GetFromComposite, FindMissing), clauses 11-14 hold of what the model
    answers.  No hypothesis on [b] or [op] is needed. *)
From Coq Require Import List ZArith NArith Bool Arith Lia.
From BBS Require Import Common.Sx Common.SxFactsMA Routing.Names Routing.NamesProofs Routing.HierNames
  Routing.HierProofs Run.R19.
Import ListNotations.
Open Scope Z_scope.

Lemma dec_enc_str s : dec_str (enc_str s) = s.
Proof. apply sx_Ns_of_Ns. Qed.
Lemma dec_enc_dg d : dec_dg (enc_dg d) = d.
Proof.
  destruct d as [i n]. unfold dec_dg, enc_dg. cbn [fst snd sx_nth sx_list nth].
  rewrite dec_enc_str, sx_N_of_N. reflexivity.
Qed.
Lemma dec_enc_dgs l : dec_dgs (enc_dgs l) = l.
Proof.
  unfold dec_dgs, enc_dgs. cbn [sx_list]. rewrite map_map.
  induction l as [|x l IH]; [reflexivity|]. cbn [map]. rewrite dec_enc_dg, IH. reflexivity.
Qed.

Lemma ancestors_rev d : ancestors d = rev (parents_of d).
Proof. unfold ancestors, parents_of. apply map_rev. Qed.

Lemma hb_get_no_panic b d : hb_get b d <> Panic.
Proof.
  unfold hb_get. destruct (negb _); [discriminate|]. destruct (dg_mem _ _); discriminate.
Qed.
Lemma hb_get_ok b d a : hb_get b d = Ok a -> a = d.
Proof.
  unfold hb_get. destruct (negb _); [discriminate|]. destruct (dg_mem _ _); [|discriminate].
  intros [= <-]. reflexivity.
Qed.
Lemma hb_fm_no_panic b k q : hb_fm b k q <> Panic.
Proof. unfold hb_fm. destruct (negb _); discriminate. Qed.

Theorem mon_hier_get_silent b op :
  sx_Z (sx_nth op 0) = 0 -> mon_hier_op b op (run_hier_op b op) = [].
Proof.
  intros Hk. unfold run_hier_op. rewrite Hk.
  set (d := dec_dg (sx_nth op 1)).
  pose proof (hier_get_first_answer _ (hb_get b) d (hb_get_no_panic b)) as H.
  rewrite <- ancestors_rev in H.
  destruct (hier_get (hb_get b) d) as [r asked]. cbn [fst] in H.
  destruct r as [a|e|]; cbn [enc_hdata]; unfold mon_hier_op; rewrite Hk; fold d; rewrite <- H;
    cbn [sx_nth sx_list nth sx_Z].
  - rewrite sx_eqb_refl. reflexivity.
  - rewrite Z.eqb_refl. reflexivity.
  - reflexivity.
Qed.

Lemma hier_gfc_chain_spec b x y : forall (ns : list (list comp)) asked, ns <> [] ->
  fst (hier_gfc_chain (hb_gfc b) (map (fun n => (join n, x)) ns) (map (fun n => (join n, y)) ns) asked) =
  match first_answer (hb_get b) (map (fun n => (join n, x)) ns) with
  | Ok a => Ok (fst a, y)
  | Err e => Err e
  | Panic => Panic
  end.
Proof.
  induction ns as [|n r IH]; intros asked Hne; [congruence|].
  cbn [map hier_gfc_chain first_answer]. unfold hb_gfc at 1.
  destruct (hb_get b (join n, x)) as [a|e|] eqn:Eg.
  - apply hb_get_ok in Eg. subst a. reflexivity.
  - destruct (e =? NOT_FOUND) eqn:Ee; cbn [negb]; [|reflexivity].
    destruct r as [|n' r].
    + cbn. apply Z.eqb_eq in Ee. subst e. reflexivity.
    + cbn [map]. cbn [map] in IH. apply IH. discriminate.
  - reflexivity.
Qed.

Lemma hier_gfc_first_answer b inst x y :
  fst (hier_gfc (hb_gfc b) (inst, x) (inst, y)) =
  match first_answer (hb_get b) (ancestors (inst, x)) with
  | Ok a => Ok (fst a, y)
  | Err e => Err e
  | Panic => Panic
  end.
Proof.
  unfold hier_gfc, ancestors, parents_of. cbn [fst snd]. rewrite <- !map_rev.
  apply hier_gfc_chain_spec.
  destruct (prefixes_last (split inst)) as [l ->]. rewrite rev_app_distr. discriminate.
Qed.

Theorem mon_hier_gfc_silent b op :
  sx_Z (sx_nth op 0) = 1 -> mon_hier_op b op (run_hier_op b op) = [].
Proof.
  intros Hk. unfold run_hier_op. rewrite Hk.
  set (inst := dec_str (sx_nth op 1)).
  pose proof (hier_gfc_first_answer b inst (sx_N (sx_nth op 2)) (sx_N (sx_nth op 3))) as H.
  destruct (hier_gfc (hb_gfc b) (inst, sx_N (sx_nth op 2)) (inst, sx_N (sx_nth op 3))) as [r asked].
  cbn [fst] in H. subst r. unfold mon_hier_op. rewrite Hk. fold inst.
  destruct (first_answer (hb_get b) (ancestors (inst, sx_N (sx_nth op 2)))) as [a|e|];
    cbn [enc_hdata sx_nth sx_list nth sx_Z].
  - rewrite sx_eqb_refl. reflexivity.
  - rewrite Z.eqb_refl. reflexivity.
  - reflexivity.
Qed.

From BBS Require Import Routing.TrieFullMonCanon.

Section FindMissing.
  Variable b : sx.
  Definition hb_present (d : digest) : bool := dg_mem d (dec_dgs (sx_nth b 0)).
  Definition hb_fault (k : nat) : Z := sx_Z (nth k (sx_list (sx_nth b 2)) (A 0)).

  Lemma hb_fm_cases k q :
    (hb_fault k <> 0 /\ hb_fm b k q = Err (hb_fault k))
    \/ (hb_fault k = 0 /\ hb_fm b k q = honest_fm hb_present k q).
  Proof.
    unfold hb_fm. fold (hb_fault k). destruct (hb_fault k =? 0) eqn:E; cbn [negb].
    - right. apply Z.eqb_eq in E. split; [exact E|reflexivity].
    - left. apply Z.eqb_neq in E. split; [exact E|reflexivity].
  Qed.

  Lemma levels_nil (fm : nat -> list digest -> outcome (list digest)) fuel k final asked :
    levels fm fuel k [] final asked = (Ok (canon final), asked).
  Proof. destruct fuel; reflexivity. Qed.

  (** Invariant of the work-list loop: [asked] holds one entry per backend call
      made so far (calls 0..k-1), all of which were fault-free.  A successful
      run made only fault-free calls and coincides with the run over the honest
      backend; a failing run returns a non-zero entry of the fault list. *)
  Lemma levels_sim : forall fuel k work final asked r asked',
    length asked = k -> (forall j, (j < k)%nat -> hb_fault j = 0) ->
    levels (hb_fm b) fuel k work final asked = (r, asked') ->
    match r with
    | Ok res => (forall j, (j < length asked')%nat -> hb_fault j = 0)
                /\ levels (honest_fm hb_present) fuel k work final asked = (Ok res, asked')
    | Err e => e <> 0 /\ exists j, hb_fault j = e
    | Panic => True
    end.
  Proof.
    induction fuel as [|fuel IH]; intros k work final asked r asked' Hlen Hok H;
      (destruct work as [|e0 work0];
       [rewrite levels_nil in H; injection H as <- <-; rewrite levels_nil; subst k; auto|]).
    - injection H as <- <-. exact I.
    - rewrite levels_step in H by discriminate. cbv zeta in H. remember (e0 :: work0) as work eqn:Ew.
      destruct (hb_fm_cases k (canon (map last_parent work))) as [[Hf E]|[Hf E]]; rewrite E in H.
      + injection H as <- <-. split; [exact Hf|]. exists k. reflexivity.
      + unfold honest_fm in H.
        destruct (scan (length work) _ [] work final) as [w' f'] eqn:Es.
        apply IH in H.
        * destruct r as [res|e|]; [|exact H|exact I]. destruct H as [H1 H2]. split; [exact H1|].
          subst work. rewrite levels_step by discriminate. cbv zeta. unfold honest_fm at 1. rewrite Es. exact H2.
        * rewrite app_length. cbn [length]. lia.
        * intros j Hj. assert (Hc : (j < k)%nat \/ j = k) by lia.
          destruct Hc as [Hc| ->]; [apply Hok; exact Hc|exact Hf].
  Qed.

  Lemma hier_fm_honest_unfold (p : digest -> bool) ds :
    hier_fm (honest_fm p) ds =
    let '(work, final) := classify (canon (filter (fun d => negb (p d)) (canon ds))) [] [] in
    levels (honest_fm p) (S (fold_right Nat.max O (map (fun e => length (snd e)) work))) 1%nat work final [canon ds].
  Proof. reflexivity. Qed.

  Lemma hier_fm_sim ds r asked :
    hier_fm (hb_fm b) ds = (r, asked) ->
    match r with
    | Ok res => (forall j, (j < length asked)%nat -> hb_fault j = 0)
                /\ hier_fm (honest_fm hb_present) ds = (Ok res, asked)
    | Err e => e <> 0 /\ exists j, hb_fault j = e
    | Panic => True
    end.
  Proof.
    intros H. unfold hier_fm in H.
    destruct (hb_fm_cases O (canon ds)) as [[Hf E]|[Hf E]]; rewrite E in H.
    - injection H as <- <-. split; [exact Hf|]. exists O. reflexivity.
    - rewrite hier_fm_honest_unfold. unfold honest_fm in H.
      destruct (classify _ [] []) as [work final].
      apply levels_sim in H; [exact H|reflexivity|].
      intros j Hj. assert (j = O) by lia. subst j. exact Hf.
  Qed.

  Lemma firstn_faults_ok : forall (l : list sx) n,
    (forall j, (j < n)%nat -> sx_Z (nth j l (A 0)) = 0) ->
    existsb (fun f => negb (f =? 0)) (firstn n (map sx_Z l)) = false.
  Proof.
    induction l as [|x l IH]; intros n H; [destruct n; reflexivity|].
    destruct n as [|n]; [reflexivity|]. cbn [map firstn existsb].
    assert (Hx : sx_Z x = 0) by (apply (H O); lia). rewrite Hx. cbn [Z.eqb negb orb]. apply IH.
    intros j Hj. apply (H (S j)). lia.
  Qed.
  Lemma fault_in_faults j e :
    hb_fault j = e -> e <> 0 -> existsb (fun f => f =? e) (map sx_Z (sx_list (sx_nth b 2))) = true.
  Proof.
    unfold hb_fault. intros H He. apply existsb_exists. exists e. split; [|apply Z.eqb_refl].
    destruct (Nat.lt_ge_cases j (length (sx_list (sx_nth b 2)))) as [Hj|Hj].
    - rewrite <- H. apply in_map, nth_In. exact Hj.
    - rewrite nth_overflow in H by exact Hj. cbn in H. congruence.
  Qed.

  Lemma zmatch01 {T} z (a0 a1 d : T) : z <> 0 -> z <> 1 ->
    match z with 0 => a0 | 1 => a1 | _ => d end = d.
  Proof. intros H0 H1. destruct z as [|[p|p|]|p]; congruence || reflexivity. Qed.

  Theorem mon_hier_fm_silent op :
    sx_Z (sx_nth op 0) <> 0 -> sx_Z (sx_nth op 0) <> 1 ->
    mon_hier_op b op (run_hier_op b op) = [].
  Proof.
    intros H0 H1. unfold run_hier_op. rewrite (zmatch01 _ _ _ _ H0 H1).
    set (ds := dec_dgs (sx_nth op 1)).
    pose proof (hier_fm_sim ds) as Hsim.
    pose proof (hier_fm_no_panic (hb_fm b) ds (hb_fm_no_panic b)) as Hnp.
    destruct (hier_fm (hb_fm b) ds) as [r asked].
    specialize (Hsim r asked eq_refl); cbn [fst] in Hnp.
    destruct r as [res|e|]; [| |congruence];
      unfold mon_hier_op; rewrite (zmatch01 _ _ _ _ H0 H1); fold ds; cbn [sx_nth sx_list nth sx_Z].
    - destruct Hsim as [Hfa Hh]. cbn [Z.eqb]. rewrite map_length, (firstn_faults_ok _ _ Hfa).
      destruct (hier_fm_honest hb_present ds) as [res' [asked' [Hh' Hspec]]].
      rewrite Hh in Hh'; injection Hh' as <- <-.
      unfold dgs_eqb. rewrite dec_enc_dgs.
      match goal with |- (if sx_eqb (enc_dgs ?x) (enc_dgs ?y) then _ else _) = _ =>
        replace x with y; [rewrite sx_eqb_refl; reflexivity|] end.
      apply canon_ext. intros d. rewrite Hspec, filter_In, forallb_forall, ancestors_rev.
      split; intros [Hd Ha]; (split; [exact Hd|]); intros a Hin.
      + apply in_rev in Hin. apply Ha in Hin. apply negb_true_iff in Hin. exact Hin.
      + apply negb_true_iff, Ha, in_rev. exact Hin.
    - destruct Hsim as [He [j Hj]].
      destruct (e =? 0) eqn:Ee; [apply Z.eqb_eq in Ee; congruence|].
      rewrite (fault_in_faults j e Hj He). reflexivity.
  Qed.
End FindMissing.

Theorem mon_hier_op_silent : forall b op, mon_hier_op b op (run_hier_op b op) = [].
Proof.
  intros b op.
  destruct (Z.eq_dec (sx_Z (sx_nth op 0)) 0) as [H0|H0]; [apply mon_hier_get_silent; exact H0|].
  destruct (Z.eq_dec (sx_Z (sx_nth op 0)) 1) as [H1|H1]; [apply mon_hier_gfc_silent; exact H1|].
  apply mon_hier_fm_silent; assumption.
Qed.

Lemma mon_hier_ops_silent b : forall ops,
  concat (zip_with (mon_hier_op b) ops (map (run_hier_op b) ops)) = [].
Proof.
  induction ops as [|op ops IH]; [reflexivity|].
  cbn [map zip_with concat]. rewrite mon_hier_op_silent, IH. reflexivity.
Qed.

(** every input whose kind is none of 0 (trie), 1 (patcher), 2 (demultiplexer)
    is treated as a hierarchical-decorator input *)
Theorem mon19_silent_on_hier_model : forall inp,
  sx_Z (sx_nth inp 0) <> 0 -> sx_Z (sx_nth inp 0) <> 1 -> sx_Z (sx_nth inp 0) <> 2 ->
  mon19 inp (run19 inp) = [].
Proof.
  intros inp H0 H1 H2. unfold mon19, run19.
  destruct (sx_Z (sx_nth inp 0)) as [|[[p|p|]|[p|p|]|]|p]; try congruence;
    cbn [sx_list]; apply mon_hier_ops_silent.
Qed.

Corollary mon19_silent_on_hier_model_kind3 : forall inp,
  sx_Z (sx_nth inp 0) = 3 -> mon19 inp (run19 inp) = [].
Proof. intros inp H. apply mon19_silent_on_hier_model; rewrite H; discriminate. Qed.
