(** C19 — proofs about the instance-name trie model. *)
From Coq Require Import List ZArith NArith Bool Arith Lia.
From BBS Require Import Routing.Names Routing.NamesProofs Routing.Trie.
Import ListNotations.
Open Scope Z_scope.

Lemma lookup_upd ch c t d : lookup (upd ch c t) d = if str_eqb c d then Some t else lookup ch d.
Proof.
  induction ch as [|[k s] r IH]; cbn.
  - destruct (str_eqb c d); reflexivity.
  - destruct (str_eqb k c) eqn:E.
    + apply str_eqb_eq in E. subst k. cbn. destruct (str_eqb c d); reflexivity.
    + cbn. rewrite IH. destruct (str_eqb k d) eqn:E2; [|reflexivity].
      apply str_eqb_eq in E2. subst k. rewrite str_eqb_sym, E. reflexivity.
Qed.
Lemma lookup_del ch c d : lookup (del ch c) d = if str_eqb c d then None else lookup ch d.
Proof.
  induction ch as [|[k s] r IH]; cbn.
  - destruct (str_eqb c d); reflexivity.
  - destruct (str_eqb k c) eqn:E.
    + apply str_eqb_eq in E. subst k. rewrite IH. destruct (str_eqb c d); reflexivity.
    + cbn. rewrite IH. destruct (str_eqb k d) eqn:E2; [|reflexivity].
      apply str_eqb_eq in E2. subst k. rewrite str_eqb_sym, E. reflexivity.
Qed.

(** the map a trie stands for, as a function: value >= 0 or -1 *)
Definition norm (v : Z) : Z := if 0 <=? v then v else -1.
Fixpoint gval (t : trie) (n : name) : Z :=
  match n with
  | [] => norm (tval t)
  | c :: n' => match lookup (tch t) c with None => -1 | Some s => gval s n' end
  end.

Definition cgval (o : option trie) (m : name) : Z := match o with Some s => gval s m | None => -1 end.

Lemma norm_range v : 0 <= norm v \/ norm v = -1.
Proof. unfold norm. destruct (0 <=? v) eqn:E; [left; lia|right; reflexivity]. Qed.
Lemma norm_idem v : norm (norm v) = norm v.
Proof. unfold norm. destruct (0 <=? v) eqn:E; [rewrite E|]; reflexivity. Qed.
Lemma norm_nonneg v : 0 <= v -> norm v = v.
Proof. unfold norm. intros H. destruct (0 <=? v) eqn:E; [reflexivity|lia]. Qed.
Lemma norm_ge v : -1 <= v -> norm v = v.
Proof. unfold norm. intros H. destruct (0 <=? v) eqn:E; [reflexivity|lia]. Qed.
Lemma norm_test v : (0 <=? norm v) = (0 <=? v).
Proof. unfold norm. destruct (0 <=? v) eqn:E; [exact E|reflexivity]. Qed.
Lemma gval_range t n : 0 <= gval t n \/ gval t n = -1.
Proof.
  revert t; induction n as [|c n IH]; intros t; cbn; [apply norm_range|].
  destruct (lookup (tch t) c); [apply IH|right; reflexivity].
Qed.
Lemma norm_gval t n : norm (gval t n) = gval t n.
Proof. destruct (gval_range t n) as [H|H]; [apply norm_nonneg; exact H|rewrite H; reflexivity]. Qed.

Lemma get_exact_ne_gval t c n : get_exact_ne t c n = gval t (c :: n).
Proof.
  revert t c; induction n as [|d n IH]; intros t c; cbn.
  - destruct (lookup (tch t) c); reflexivity.
  - destruct (lookup (tch t) c) as [s|]; [|reflexivity]. rewrite IH. reflexivity.
Qed.
(** GetExact: on the empty name the root value as it is, otherwise the registered value or -1 *)
Lemma get_exact_gval t n : get_exact t n = match n with [] => tval t | _ => gval t n end.
Proof. destruct n; [reflexivity|apply get_exact_ne_gval]. Qed.
Lemma get_exact_gval_wf t n : -1 <= tval t -> get_exact t n = gval t n.
Proof. intros H. rewrite get_exact_gval. destruct n; [cbn; rewrite norm_ge; auto|reflexivity]. Qed.

Lemma gval_set t n v m :
  gval (set t n v) m = if name_eqb n m then norm v else gval t m.
Proof.
  revert t m; induction n as [|c n IH]; intros t m.
  - destruct m as [|d m]; cbn; reflexivity.
  - destruct m as [|d m]; [reflexivity|].
    cbn [set gval tch name_eqb]. rewrite lookup_upd.
    destruct (str_eqb c d) eqn:E.
    + apply str_eqb_eq in E. subst d. rewrite IH. cbn [andb].
      destruct (name_eqb n m); [reflexivity|].
      destruct (lookup (tch t) c); [reflexivity|]. destruct m; reflexivity.
    + reflexivity.
Qed.
Lemma tval_set t n v : tval (set t n v) = match n with [] => v | _ => tval t end.
Proof. destruct n; reflexivity. Qed.

Fixpoint glpv (t : trie) (last : Z) (n : name) : Z :=
  let last' := if 0 <=? tval t then tval t else last in
  match n with
  | [] => last'
  | c :: n' => match lookup (tch t) c with None => last' | Some s => glpv s last' n' end
  end.

Lemma glp_ne_glpv t last c n :
  glp_ne t last c n = match lookup (tch t) c with None => last | Some s => glpv s last n end.
Proof.
  revert t last c; induction n as [|d n IH]; intros t last c; cbn.
  - reflexivity.
  - destruct (lookup (tch t) c) as [s|]; [|reflexivity]. rewrite IH. reflexivity.
Qed.

Lemma filter_map_comm {X Y} (f : X -> Y) (p : Y -> bool) l :
  filter p (map f l) = map f (filter (fun x => p (f x)) l).
Proof. induction l; cbn; [reflexivity|]. destruct (p (f a)); cbn; rewrite IHl; reflexivity. Qed.

Lemma filter_none {X} (p : X -> bool) l : (forall x, In x l -> p x = false) -> filter p l = [].
Proof.
  induction l; cbn; intros H; [reflexivity|]. rewrite (H a) by auto. apply IHl. auto.
Qed.

Lemma existsb_false {T} (f : T -> bool) l : existsb f l = false <-> forall x, In x l -> f x = false.
Proof.
  split.
  - intros H x Hx. destruct (f x) eqn:E; [|reflexivity]. rewrite <- H. symmetry. apply existsb_exists. eauto.
  - intros H. destruct (existsb f l) eqn:E; [|reflexivity].
    apply existsb_exists in E as [x [Hx Hf]]. rewrite (H x Hx) in Hf. discriminate.
Qed.

Lemma filter_gval t c (L : list name) :
  filter (fun p => 0 <=? gval t p) (map (cons c) L)
  = map (cons c) (filter (fun p => 0 <=? cgval (lookup (tch t) c) p) L).
Proof.
  (* [gval t (c :: p)] is [cgval (lookup (tch t) c) p] by computation *)
  apply (filter_map_comm (cons c) (fun p => 0 <=? gval t p)).
Qed.
Lemma existsb_gval t c (L : list name) :
  existsb (fun p => 0 <=? gval t p) (map (cons c) L) = existsb (fun p => 0 <=? cgval (lookup (tch t) c) p) L.
Proof. induction L as [|x L IH]; [reflexivity|]. cbn [map existsb]. rewrite IH. reflexivity. Qed.

Lemma last_step t last :
  (if 0 <=? tval t then tval t else last)
  = match filter (fun p => 0 <=? gval t p) [[]] with [] => last | p :: _ => gval t p end.
Proof.
  cbn [filter gval]. rewrite norm_test.
  destruct (0 <=? tval t) eqn:E; [symmetry; apply norm_nonneg, Z.leb_le, E|reflexivity].
Qed.

Lemma glpv_spec t last n :
  glpv t last n = match filter (fun p => 0 <=? gval t p) (rev (prefixes n)) with
                  | [] => last
                  | p :: _ => gval t p
                  end.
Proof.
  revert t last; induction n as [|c n IH]; intros t last.
  - cbn [glpv prefixes rev app]. apply last_step.
  - cbn [glpv prefixes rev]. rewrite filter_app, <- map_rev, filter_gval.
    destruct (lookup (tch t) c) as [s|] eqn:El; cbn [cgval].
    + rewrite IH.
      destruct (filter (fun p : list comp => 0 <=? gval s p) (rev (prefixes n))) as [|p l].
      * cbn [map app]. apply last_step.
      * cbn [map app gval]. rewrite El. reflexivity.
    + rewrite filter_none by reflexivity. cbn [map app]. apply last_step.
Qed.

(** GetLongestPrefix returns the value of the longest registered component-wise prefix, else -1 *)
Lemma glp_gval t n : -1 <= tval t -> get_longest_prefix t n = lpv_f (gval t) n.
Proof.
  intros Hv. unfold lpv_f. rewrite <- (glpv_spec t (-1) n).
  destruct n as [|c n].
  - cbn [get_longest_prefix glpv]. destruct (0 <=? tval t) eqn:E; [reflexivity|]. apply Z.leb_gt in E. lia.
  - cbn [get_longest_prefix glpv]. rewrite glp_ne_glpv.
    destruct (lookup (tch t) c) as [s|]; destruct (0 <=? tval t) eqn:E; try reflexivity;
      apply Z.leb_gt in E; assert (H : tval t = -1) by lia.
    + rewrite H; reflexivity.
    + exact H.
Qed.

Lemma lpv_f_cons f c n :
  lpv_f f (c :: n) =
  let r := lpv_f (fun p => f (c :: p)) n in
  if 0 <=? r then r else if 0 <=? f [] then f [] else -1.
Proof.
  unfold lpv_f. cbn [prefixes rev]. rewrite filter_app, <- map_rev, filter_map_comm.
  destruct (filter (fun p => 0 <=? f (c :: p)) (rev (prefixes n))) as [|p l] eqn:E; cbn [map app filter].
  - cbn. destruct (0 <=? f []); reflexivity.
  - assert (Hp : In p (filter (fun p => 0 <=? f (c :: p)) (rev (prefixes n)))) by (rewrite E; left; reflexivity).
    apply filter_In in Hp as [_ Hp]. cbv zeta. rewrite Hp. reflexivity.
Qed.

(** declarative reading of [lpv_f]: the LONGEST registered prefix *)
Lemma lpv_f_spec f n :
  (exists p, is_prefix p n = true /\ 0 <= f p /\ lpv_f f n = f p /\
             forall q, is_prefix q n = true -> 0 <= f q -> (length q <= length p)%nat)
  \/ (lpv_f f n = -1 /\ forall q, is_prefix q n = true -> f q < 0).
Proof.
  revert f; induction n as [|c n IH]; intros f.
  - unfold lpv_f. cbn. destruct (0 <=? f []) eqn:E.
    + left. exists []. repeat split; [apply Z.leb_le, E|]. intros [|d q] Hq _; [apply le_n|discriminate Hq].
    + right. split; [reflexivity|]. intros [|d q] Hq; [apply Z.leb_gt, E|discriminate Hq].
  - (* the longest hit below [c] wins; otherwise the empty prefix, if registered *)
    rewrite lpv_f_cons. cbv zeta.
    assert (Hcons : forall d q, is_prefix (d :: q) (c :: n) = true -> d = c /\ is_prefix q n = true).
    { intros d q Hq. cbn in Hq. apply andb_true_iff in Hq as [Hd Hq]. apply str_eqb_eq in Hd. auto. }
    destruct (IH (fun p => f (c :: p))) as [[p [Hp [Hv [He Hmax]]]]|[He Hall]]; rewrite He.
    + rewrite (proj2 (Z.leb_le _ _) Hv). left. exists (c :: p).
      split; [cbn; rewrite str_eqb_refl; exact Hp|]. split; [exact Hv|]. split; [reflexivity|].
      intros [|d q] Hq Hfq; [cbn; lia|]. destruct (Hcons d q Hq) as [-> Hq']. cbn [length]. apply le_n_S, Hmax; assumption.
    + cbn [Z.leb Z.compare]. destruct (0 <=? f []) eqn:E.
      * left. exists []. split; [reflexivity|]. split; [apply Z.leb_le, E|]. split; [reflexivity|].
        intros [|d q] Hq Hfq; [apply le_n|]. destruct (Hcons d q Hq) as [-> Hq']. specialize (Hall q Hq'). cbv beta in Hall. lia.
      * right. split; [reflexivity|]. intros [|d q] Hq; [apply Z.leb_gt, E|].
        destruct (Hcons d q Hq) as [-> Hq']. exact (Hall q Hq').
Qed.

Lemma contains_prefix_ne_spec t c n :
  contains_prefix_ne t c n = existsb (fun p => 0 <=? cgval (lookup (tch t) c) p) (prefixes n).
Proof.
  revert t c; induction n as [|d n IH]; intros t c; cbn [contains_prefix_ne];
    (destruct (lookup (tch t) c) as [s|]; [|symmetry; apply existsb_false; reflexivity]);
    cbn [prefixes existsb cgval gval]; rewrite norm_test.
  - symmetry. apply orb_false_r.
  - rewrite existsb_gval. destruct (0 <=? tval s); [reflexivity|]. apply IH.
Qed.

(** ContainsPrefix: some registered name is a component-wise prefix *)
Lemma contains_prefix_gval t n : contains_prefix t n = hasp_f (gval t) n.
Proof.
  unfold contains_prefix, hasp_f. destruct n as [|c n]; cbn [prefixes existsb gval]; rewrite norm_test.
  - rewrite orb_false_r. destruct (0 <=? tval t); reflexivity.
  - rewrite existsb_gval, contains_prefix_ne_spec. reflexivity.
Qed.

Lemma captures_false t first :
  captures t first = false -> first = false /\ tval t < 0 /\ (length (tch t) <= 1)%nat.
Proof.
  unfold captures. intros H. apply orb_false_iff in H as [H ->]. apply orb_false_iff in H as [H1 H2].
  apply Z.leb_gt in H1. apply Z.ltb_ge in H2. repeat split; lia.
Qed.

Lemma lookup_single ch c s :
  (length ch <= 1)%nat -> lookup ch c = Some s -> forall d, lookup ch d = if str_eqb c d then Some s else None.
Proof.
  destruct ch as [|[k s0] [|x r]]; cbn; intros Hl H d; try discriminate; [|lia].
  destruct (str_eqb k c) eqn:E; [|discriminate]. injection H as ->. apply str_eqb_eq in E. subst k. reflexivity.
Qed.

Lemma name_eqb_cons c n d m : name_eqb (c :: n) (d :: m) = str_eqb c d && name_eqb n m.
Proof. reflexivity. Qed.

Lemma gval_replace t c s n ch' o' :
  lookup (tch t) c = Some s ->
  (forall d, lookup ch' d = if str_eqb c d then o' else lookup (tch t) d) ->
  (forall m, cgval o' m = if name_eqb n m then -1 else gval s m) ->
  forall m, gval (Node (tval t) ch') m = if name_eqb (c :: n) m then -1 else gval t m.
Proof.
  intros El Hl Hg [|d m]; [reflexivity|]. cbn [gval tch]. rewrite name_eqb_cons, Hl.
  destruct (str_eqb c d) eqn:E; [|reflexivity]. apply str_eqb_eq in E. subst d. rewrite El. apply Hg.
Qed.

Definition reset (s : trie) : option trie :=
  (* the final node without its value; [None]: it has no children and is cut *)
  match tch s with [] => None | _ :: _ => Some (Node (-1) (tch s)) end.
Definition rebuild (t : trie) (first : bool) (c : comp) (o : option trie) : option trie :=
  (* [o]: what became of the child [c] of [t]; [None] travels up to the nearest capturing node *)
  match o with
  | Some s' => Some (Node (tval t) (upd (tch t) c s'))
  | None => if captures t first then Some (Node (tval t) (del (tch t) c)) else None
  end.

Lemma remove_ne_eq t first c n :
  remove_ne t first c n =
  match lookup (tch t) c with
  | None => Panic
  | Some s =>
      match match n with [] => Ok (reset s) | c' :: n' => remove_ne s false c' n' end with
      | Ok o => Ok (rebuild t first c o)
      | Err e => Err e
      | Panic => Panic
      end
  end.
Proof.
  destruct n as [|c' n]; cbn [remove_ne]; destruct (lookup (tch t) c) as [s|]; try reflexivity.
  - unfold reset. destruct (tch s); [cbn [rebuild]; destruct (captures t first)|]; reflexivity.
  - destruct (remove_ne s false c' n) as [[s'|]|e|]; try reflexivity. cbn [rebuild]. destruct (captures t first); reflexivity.
Qed.

Lemma remove_ne_ind (P : trie -> bool -> name -> option trie -> Prop) :
  (forall s, P s false [] (reset s)) ->
  (forall t first c s n o, lookup (tch t) c = Some s -> P s false n o -> P t first (c :: n) (rebuild t first c o)) ->
  forall n t first c o, remove_ne t first c n = Ok o -> P t first (c :: n) o.
Proof.
  intros Hreset Hstep. induction n as [|c' n IH]; intros t first c o; rewrite remove_ne_eq;
    (destruct (lookup (tch t) c) as [s|] eqn:El; [|discriminate]).
  - intros [= <-]. apply (Hstep _ _ _ _ _ _ El), Hreset.
  - destruct (remove_ne s false c' n) as [o1|e|] eqn:Er; try discriminate. intros [= <-].
    apply (Hstep _ _ _ _ _ _ El), (IH _ _ _ _ Er).
Qed.

Lemma reset_gval s m : cgval (reset s) m = if name_eqb [] m then -1 else gval s m.
Proof.
  unfold reset. destruct m as [|d m]; destruct (tch s) eqn:Es; cbn [cgval gval tch name_eqb]; rewrite ?Es; reflexivity.
Qed.
Lemma rebuild_gval t first c s n o :
  lookup (tch t) c = Some s ->
  (forall m, cgval o m = if name_eqb n m then -1 else gval s m) ->
  forall m, cgval (rebuild t first c o) m = if name_eqb (c :: n) m then -1 else gval t m.
Proof.
  intros El Hg. destruct o as [s'|]; cbn [rebuild]; [|destruct (captures t first) eqn:Ec]; cbn [cgval].
  - eapply gval_replace; [exact El|intros d; apply lookup_upd|exact Hg].
  - eapply gval_replace; [exact El|intros d; apply lookup_del|exact Hg].
  - (* [t] has no value and no other child: its names are those of [s] under [c] *)
    apply captures_false in Ec as [_ [Hv Hl]]. intros [|d m].
    + cbn [gval name_eqb]. unfold norm. destruct (0 <=? tval t) eqn:E; [apply Z.leb_le in E; lia|reflexivity].
    + cbn [gval]. rewrite name_eqb_cons, (lookup_single _ _ _ Hl El). destruct (str_eqb c d); [apply Hg|reflexivity].
Qed.

Lemma remove_ne_gval n t first c o : remove_ne t first c n = Ok o ->
  forall m, cgval o m = if name_eqb (c :: n) m then -1 else gval t m.
Proof.
  apply (remove_ne_ind (fun t _ n o => forall m, cgval o m = if name_eqb n m then -1 else gval t m)).
  - exact reset_gval.
  - intros t0 f0 c0 s n0 o0. apply rebuild_gval.
Qed.

(** Remove does not dereference nil when the node of the name exists, in
    particular when the name is registered. *)
Lemma remove_ne_defined n : forall t first c, 0 <= gval t (c :: n) -> exists o, remove_ne t first c n = Ok o.
Proof.
  induction n as [|c' n IH]; intros t first c H; rewrite remove_ne_eq; cbn [gval] in H;
    (destruct (lookup (tch t) c) as [s|]; [|lia]).
  - eexists. reflexivity.
  - destruct (IH s false c' H) as [o ->]. eexists. reflexivity.
Qed.
Lemma remove_ne_no_err n : forall t first c e, remove_ne t first c n <> Err e.
Proof.
  induction n as [|c' n IH]; intros t first c e; rewrite remove_ne_eq;
    (destruct (lookup (tch t) c) as [s|]; [|discriminate]); [discriminate|].
  specialize (IH s false c'). destruct (remove_ne s false c' n) as [o|e'|]; [discriminate| |discriminate].
  intros [= ->]. exact (IH _ eq_refl).
Qed.
Lemma remove_ne_first t c n : remove_ne t true c n <> Ok None.
Proof.
  rewrite remove_ne_eq. destruct (lookup (tch t) c) as [s|]; [|discriminate].
  destruct (match n with [] => _ | _ => _ end) as [[s'|]|e|]; try discriminate.
  cbn [rebuild]. unfold captures. rewrite orb_true_r. discriminate.
Qed.

Lemma remove_defined t n : n = [] \/ 0 <= gval t n -> exists t' b, remove t n = Ok (t', b).
Proof.
  destruct n as [|c n]; cbn [remove]; [eauto|]. intros [H|H]; [discriminate|].
  destruct (remove_ne_defined n t true c H) as [[t'|] E]; [rewrite E; eauto|].
  destruct (remove_ne_first _ _ _ E).
Qed.

Lemma remove_ok t n t' b : remove t n = Ok (t', b) ->
  b = is_empty_root t' /\ forall m, gval t' m = if name_eqb n m then -1 else gval t m.
Proof.
  destruct n as [|c n]; cbn [remove].
  - intros [= <- <-]. split; [reflexivity|intros [|d m]; reflexivity].
  - destruct (remove_ne t true c n) as [[t0|]|e|] eqn:Er; try discriminate. intros [= <- <-].
    split; [reflexivity|exact (remove_ne_gval _ _ _ _ _ Er)].
Qed.
Lemma remove_tval t n t' b : remove t n = Ok (t', b) -> tval t' = match n with [] => -1 | _ => tval t end.
Proof.
  destruct n as [|c n]; cbn [remove]; [intros [= <- _]; reflexivity|]. rewrite remove_ne_eq.
  destruct (lookup (tch t) c) as [s|]; [|discriminate].
  destruct (match n with [] => _ | _ => _ end) as [[s'|]|e|]; try discriminate; cbn [rebuild];
    [|destruct (captures t true); [|discriminate]]; intros [= <- _]; reflexivity.
Qed.

Definition assoc_mem (m : list (list comp * Z)) (n : list comp) : bool :=
  existsb (fun e => name_eqb (fst e) n) m.
Lemma assoc_get_nomem m n : assoc_mem m n = false -> assoc_get m n = -1.
Proof.
  induction m as [|[k v] m IH]; cbn; [reflexivity|]. intros H. apply orb_false_iff in H as [H1 H2].
  rewrite H1. apply IH. exact H2.
Qed.
Lemma assoc_get_app m1 m2 n :
  assoc_get (m1 ++ m2) n = if assoc_mem m1 n then assoc_get m1 n else assoc_get m2 n.
Proof.
  induction m1 as [|[k v] m1 IH]; cbn; [reflexivity|]. destruct (name_eqb k n); cbn; [reflexivity|apply IH].
Qed.
Definition pre (c : comp) (e : list comp * Z) : list comp * Z := (c :: fst e, snd e).
Lemma assoc_mem_pre c m d n : assoc_mem (map (pre c) m) (d :: n) = str_eqb c d && assoc_mem m n.
Proof.
  unfold assoc_mem. induction m as [|[k v] m IH]; [cbn; rewrite andb_false_r; reflexivity|].
  cbn [map existsb pre fst]. rewrite IH, name_eqb_cons. destruct (str_eqb c d); reflexivity.
Qed.
Lemma assoc_get_pre c m n : assoc_get (map (pre c) m) (c :: n) = assoc_get m n.
Proof.
  induction m as [|[k v] m IH]; cbn; [reflexivity|]. rewrite str_eqb_refl. cbn. destruct (name_eqb k n); [reflexivity|apply IH].
Qed.

Fixpoint go_map (ch : list (comp * trie)) : list (list comp * Z) :=
  match ch with
  | [] => []
  | (c, s) :: r => map (pre c) (to_map s) ++ go_map r
  end.
Lemma to_map_unfold v ch : to_map (Node v ch) = (if 0 <=? v then [([], v)] else []) ++ go_map ch.
Proof.
  cbn [to_map]. f_equal. all: induction ch as [|[c s] r IH]; [reflexivity|]; cbn [go_map]; rewrite <- IH; reflexivity.
Qed.

Lemma go_map_nil_key ch : assoc_mem (go_map ch) [] = false.
Proof.
  induction ch as [|[c s] r IH]; [reflexivity|]. cbn [go_map]. unfold assoc_mem in *. rewrite existsb_app, IH, orb_false_r.
  induction (to_map s) as [|[k v] m IHm]; [reflexivity|]. cbn. exact IHm.
Qed.
Lemma go_map_absent ch c n : lookup ch c = None -> assoc_mem (go_map ch) (c :: n) = false.
Proof.
  induction ch as [|[k s] r IH]; [reflexivity|]. cbn [lookup go_map].
  destruct (str_eqb k c) eqn:E; [discriminate|]. intros H. unfold assoc_mem in *. rewrite existsb_app, (IH H), orb_false_r.
  fold (assoc_mem (map (pre k) (to_map s)) (c :: n)). rewrite assoc_mem_pre, E. reflexivity.
Qed.

Lemma lookup_none_notin ch c : ~ In c (map fst ch) -> lookup ch c = None.
Proof.
  induction ch as [|[k s] r IH]; [reflexivity|]. cbn. intros H.
  destruct (str_eqb k c) eqn:E; [apply str_eqb_eq in E; subst; tauto|]. apply IH. tauto.
Qed.

Lemma go_map_get ch c n : NoDup (map fst ch) ->
  assoc_get (go_map ch) (c :: n) = match lookup ch c with Some s => assoc_get (to_map s) n | None => -1 end.
Proof.
  induction ch as [|[k s] r IH]; [reflexivity|]. cbn [map fst]. intros Hnd. inversion Hnd as [|? ? Hk Hr]; subst.
  cbn [go_map lookup]. rewrite assoc_get_app, assoc_mem_pre.
  destruct (str_eqb k c) eqn:E.
  - apply str_eqb_eq in E. subst k. cbn [andb]. destruct (assoc_mem (to_map s) n) eqn:Em.
    + apply assoc_get_pre.
    + rewrite (assoc_get_nomem _ _ Em). apply assoc_get_nomem, go_map_absent, lookup_none_notin. exact Hk.
  - cbn [andb]. apply IH. exact Hr.
Qed.

Lemma lookup_In ch c s : lookup ch c = Some s -> exists k, In (k, s) ch.
Proof.
  induction ch as [|[k s0] r IHr]; [discriminate|]. cbn. 
  destruct (str_eqb k c); [intros [= ->]; exists k; left; reflexivity|].
  intros H. destruct (IHr H) as [k' Hk']. exists k'. right. exact Hk'.
Qed.
Lemma wf_lookup t c s : wf t -> lookup (tch t) c = Some s -> wf s.
Proof. intros Hwf El. inversion Hwf; subst. apply lookup_In in El as [k Hk]. eauto. Qed.

Lemma to_map_gval n : forall t, wf t -> assoc_get (to_map t) n = gval t n.
Proof.
  induction n as [|c n IH]; intros t Hwf; inversion Hwf as [v ch Hv Hnd Hch]; subst; rewrite to_map_unfold, assoc_get_app.
  - cbn [gval tval]. unfold norm. destruct (0 <=? v); cbn; [reflexivity|].
    apply assoc_get_nomem, go_map_nil_key.
  - replace (assoc_mem (if 0 <=? v then [([], v)] else []) (c :: n)) with false by (destruct (0 <=? v); reflexivity).
    rewrite go_map_get by exact Hnd. cbn [gval tch].
    destruct (lookup ch c) as [s|] eqn:El; [|reflexivity]. apply IH. exact (wf_lookup _ _ _ Hwf El).
Qed.

Lemma upd_keys ch c x : map fst (upd ch c x) = if existsb (fun k => str_eqb k c) (map fst ch) then map fst ch else map fst ch ++ [c].
Proof.
  induction ch as [|[k s] r IH]; [reflexivity|]. cbn. destruct (str_eqb k c) eqn:E; cbn; [reflexivity|].
  rewrite IH. destruct (existsb (fun k0 : str => str_eqb k0 c) (map fst r)); reflexivity.
Qed.
Lemma NoDup_snoc {T} (l : list T) x : NoDup l -> ~ In x l -> NoDup (l ++ [x]).
Proof.
  induction 1 as [|a l Ha Hl IH]; intros Hx; cbn [app]; [constructor; [intros []|constructor]|].
  constructor.
  - rewrite in_app_iff. intros [H|[H|[]]]; [exact (Ha H)|apply Hx; left; symmetry; exact H].
  - apply IH. intros H. apply Hx. right. exact H.
Qed.
Lemma upd_NoDup ch c x : NoDup (map fst ch) -> NoDup (map fst (upd ch c x)).
Proof.
  intros H. rewrite upd_keys. destruct (existsb (fun k : str => str_eqb k c) (map fst ch)) eqn:E; [exact H|].
  apply NoDup_snoc; [exact H|]. intros Hin. apply (proj1 (existsb_false _ _) E) in Hin.
  rewrite str_eqb_refl in Hin. discriminate.
Qed.
Lemma upd_In ch c x k s : In (k, s) (upd ch c x) -> In (k, s) ch \/ s = x.
Proof.
  induction ch as [|[k0 s0] r IH]; cbn.
  - intros [[= <- <-]|[]]. right. reflexivity.
  - destruct (str_eqb k0 c); cbn; intros [[= <- <-]|H]; auto. destruct (IH H); auto.
Qed.
Lemma del_keys_incl ch c : forall k, In k (map fst (del ch c)) -> In k (map fst ch).
Proof.
  induction ch as [|[k0 s0] r IH]; cbn; [tauto|]. intros k. destruct (str_eqb k0 c); cbn; intros H; [right; apply IH; exact H|].
  destruct H; [left; exact H|right; apply IH; exact H].
Qed.
Lemma del_NoDup ch c : NoDup (map fst ch) -> NoDup (map fst (del ch c)).
Proof.
  induction ch as [|[k0 s0] r IH]; cbn; [auto|]. intros H. inversion H; subst.
  destruct (str_eqb k0 c); cbn; [apply IH; assumption|]. constructor; [|apply IH; assumption].
  intros Hin. apply del_keys_incl in Hin. contradiction.
Qed.
Lemma del_In ch c k s : In (k, s) (del ch c) -> In (k, s) ch.
Proof.
  induction ch as [|[k0 s0] r IH]; cbn; [tauto|]. destruct (str_eqb k0 c); cbn; intros H; [right; apply IH; exact H|].
  destruct H; [left; exact H|right; apply IH; exact H].
Qed.
Lemma wf_empty : wf empty_trie.
Proof. constructor; [lia|constructor|intros ? ? []]. Qed.

Lemma wf_unset t : wf t -> wf (Node (-1) (tch t)).
Proof. intros Hwf. inversion Hwf; subst. constructor; [lia|assumption|assumption]. Qed.
Lemma wf_upd t c x : wf t -> wf x -> wf (Node (tval t) (upd (tch t) c x)).
Proof.
  intros Hwf Hx. inversion Hwf as [v ch Hv Hnd Hch]; subst. constructor; [assumption|apply upd_NoDup; assumption|].
  intros k s Hin. apply upd_In in Hin as [Hin| ->]; [eapply Hch; exact Hin|exact Hx].
Qed.
Lemma wf_del t c : wf t -> wf (Node (tval t) (del (tch t) c)).
Proof.
  intros Hwf. inversion Hwf as [v ch Hv Hnd Hch]; subst. constructor; [assumption|apply del_NoDup; assumption|].
  intros k s Hin. apply del_In in Hin. eapply Hch; exact Hin.
Qed.

Lemma wf_set n : forall t v, wf t -> -1 <= v -> wf (set t n v).
Proof.
  induction n as [|c n IH]; intros t v Hwf Hv; cbn [set].
  - inversion Hwf; subst. constructor; assumption.
  - apply wf_upd; [exact Hwf|]. apply IH; [|exact Hv].
    destruct (lookup (tch t) c) as [s0|] eqn:El; [exact (wf_lookup _ _ _ Hwf El)|apply wf_empty].
Qed.

Lemma wf_remove_ne n t first c t' : wf t -> remove_ne t first c n = Ok (Some t') -> wf t'.
Proof.
  intros Hwf Hr.
  refine (remove_ne_ind (fun t _ _ o => wf t -> forall t', o = Some t' -> wf t') _ _ _ _ _ _ _ Hr Hwf _ eq_refl).
  - intros s Hs s'. unfold reset. destruct (tch s) eqn:Es; intros [= <-]. rewrite <- Es. apply wf_unset, Hs.
  - intros t0 f0 c0 s n0 o El IH Hwf0 t0'. pose proof (wf_lookup _ _ _ Hwf0 El) as Hs.
    destruct o as [s'|]; cbn [rebuild]; [|destruct (captures t0 f0)]; intros [= <-].
    + apply wf_upd; [exact Hwf0|exact (IH Hs _ eq_refl)].
    + apply wf_del, Hwf0.
Qed.

Lemma wf_remove t n t' b : wf t -> remove t n = Ok (t', b) -> wf t'.
Proof.
  intros Hwf. destruct n as [|c n]; cbn [remove].
  - intros [= <- _]. apply wf_unset, Hwf.
  - destruct (remove_ne t true c n) as [[t0|]|e|] eqn:Er; try discriminate. intros [= <- _].
    eapply wf_remove_ne; eauto.
Qed.

(** tries reachable from the empty one by Set (values >= 0) and successful Remove *)
Inductive reach : trie -> Prop :=
| reach_empty : reach empty_trie
| reach_set t n v : reach t -> 0 <= v -> reach (set t n v)
| reach_remove t n t' b : reach t -> remove t n = Ok (t', b) -> reach t'.

Lemma reach_wf t : reach t -> wf t.
Proof.
  induction 1; [apply wf_empty|apply wf_set; [assumption|lia]|eapply wf_remove; eauto].
Qed.
Lemma wf_tval t : wf t -> -1 <= tval t.
Proof. inversion 1; assumption. Qed.

Lemma lpv_f_ext f g n : (forall p, f p = g p) -> lpv_f f n = lpv_f g n.
Proof.
  intros H. unfold lpv_f. rewrite (filter_ext _ (fun p => 0 <=? g p)) by (intros; rewrite H; reflexivity).
  destruct (filter _ _); [reflexivity|apply H].
Qed.
Lemma hasp_f_ext f g n : (forall p, f p = g p) -> hasp_f f n = hasp_f g n.
Proof.
  intros H. unfold hasp_f. induction (prefixes n) as [|p l IH]; [reflexivity|]. cbn. rewrite H, IH. reflexivity.
Qed.

Lemma assoc_get_remove m n k : assoc_get (assoc_remove m n) k = if name_eqb n k then -1 else assoc_get m k.
Proof.
  unfold assoc_remove. induction m as [|[a v] m IH]; [destruct (name_eqb n k); reflexivity|].
  cbn [filter fst assoc_get]. destruct (name_eqb a n) eqn:E; cbn [negb].
  - apply name_eqb_eq in E. subst a. rewrite IH. destruct (name_eqb n k); reflexivity.
  - cbn [assoc_get]. rewrite IH. destruct (name_eqb a k) eqn:Ea; [|reflexivity].
    apply name_eqb_eq in Ea. subst a. destruct (name_eqb n k) eqn:En; [|reflexivity].
    apply name_eqb_eq in En. subst k. rewrite name_eqb_refl in E. discriminate.
Qed.
Lemma assoc_get_set m n v k : assoc_get (assoc_set m n v) k = if name_eqb n k then v else assoc_get m k.
Proof.
  unfold assoc_set. cbn [assoc_get fst]. destruct (name_eqb n k) eqn:E; [reflexivity|].
  fold (assoc_remove m n). rewrite assoc_get_remove, E. reflexivity.
Qed.

Lemma get_exact_to_map t n : reach t -> get_exact t n = assoc_get (to_map t) n.
Proof.
  intros H. apply reach_wf in H. rewrite to_map_gval by exact H. apply get_exact_gval_wf, wf_tval, H.
Qed.
Lemma glp_to_map t n : reach t -> get_longest_prefix t n = longest_prefix_value (to_map t) n.
Proof.
  intros H. apply reach_wf in H. rewrite glp_gval by (apply wf_tval, H).
  unfold longest_prefix_value. apply lpv_f_ext. intros p. symmetry. apply to_map_gval, H.
Qed.
Lemma contains_prefix_to_map t n : reach t -> contains_prefix t n = has_prefix (to_map t) n.
Proof.
  intros H. apply reach_wf in H. rewrite contains_prefix_gval.
  unfold has_prefix. apply hasp_f_ext. intros p. symmetry. apply to_map_gval, H.
Qed.
Lemma contains_exact_to_map t n : reach t -> contains_exact t n = (0 <=? assoc_get (to_map t) n).
Proof. intros H. unfold contains_exact. rewrite get_exact_to_map by exact H. reflexivity. Qed.

Lemma set_to_map t n v : reach t -> 0 <= v ->
  forall m, assoc_get (to_map (set t n v)) m = assoc_get (assoc_set (to_map t) n v) m.
Proof.
  intros H Hv m. assert (Hr : reach (set t n v)) by (constructor; assumption).
  rewrite (to_map_gval m _ (reach_wf _ Hr)), gval_set, assoc_get_set, (to_map_gval m _ (reach_wf _ H)), norm_nonneg by exact Hv.
  reflexivity.
Qed.

Lemma is_empty_root_gval t : is_empty_root t = true -> forall m, gval t m = -1.
Proof.
  unfold is_empty_root. intros H. apply andb_true_iff in H as [Hv Hc]. apply Z.ltb_lt in Hv.
  intros [|c m]; cbn.
  - unfold norm. destruct (0 <=? tval t) eqn:E; [apply Z.leb_le in E; lia|reflexivity].
  - destruct (tch t); [reflexivity|discriminate].
Qed.

Lemma remove_ok_to_map t n t' b : reach t -> remove t n = Ok (t', b) ->
  forall m, assoc_get (to_map t') m = assoc_get (assoc_remove (to_map t) n) m.
Proof.
  intros H Hr m. assert (Hr' : reach t') by (econstructor; eauto).
  rewrite (to_map_gval m _ (reach_wf _ Hr')), (proj2 (remove_ok _ _ _ _ Hr)), assoc_get_remove,
    (to_map_gval m _ (reach_wf _ H)). reflexivity.
Qed.

(** Remove of a registered name: succeeds (no nil dereference), deletes
    exactly that name; a [true] result means the trie is empty. *)
Lemma remove_to_map t n : reach t -> 0 <= assoc_get (to_map t) n ->
  exists t' b, remove t n = Ok (t', b) /\
    (forall m, assoc_get (to_map t') m = assoc_get (assoc_remove (to_map t) n) m) /\
    (b = true -> forall m, assoc_get (to_map t') m = -1).
Proof.
  intros H Hreg. rewrite (to_map_gval n _ (reach_wf _ H)) in Hreg.
  destruct (remove_defined t n (or_intror Hreg)) as [t' [b Hr]].
  exists t', b. split; [exact Hr|]. split; [exact (remove_ok_to_map _ _ _ _ H Hr)|].
  intros -> m. rewrite (to_map_gval m t') by (eapply reach_wf, reach_remove; eauto).
  apply is_empty_root_gval. symmetry. apply (remove_ok _ _ _ _ Hr).
Qed.

Lemma lpv_assoc_longest (m : list (list comp * Z)) n :
  (exists p, is_prefix p n = true /\ 0 <= assoc_get m p /\ longest_prefix_value m n = assoc_get m p /\
             forall q, is_prefix q n = true -> 0 <= assoc_get m q -> (length q <= length p)%nat)
  \/ (longest_prefix_value m n = -1 /\ forall q, is_prefix q n = true -> assoc_get m q < 0).
Proof. apply lpv_f_spec. Qed.
