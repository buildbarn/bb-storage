(** C19 — strings, instance names as component lists, digests, canonical sets.
    Definitions only (lemmas: NamesProofs.v, HierProofs.v, PatcherProofs.v).

    A string is a list of bytes ([N]); an instance name is handled by the code
    both as a string ("a/b/c", the empty string for the empty name) and as its
    list of pathname components; [join] / [split] relate the two. *)
From Coq Require Import List ZArith NArith Bool Arith.
Import ListNotations.

Definition str := list N.
Definition comp := str.
Notation name := (list comp) (only parsing).
Definition slash : N := 47%N.

Fixpoint str_eqb (a b : str) : bool :=
  match a, b with
  | [], [] => true
  | x :: a', y :: b' => N.eqb x y && str_eqb a' b'
  | _, _ => false
  end.

Fixpoint name_eqb (a b : name) : bool :=
  match a, b with
  | [], [] => true
  | x :: a', y :: b' => str_eqb x y && name_eqb a' b'
  | _, _ => false
  end.

(** "a/b/c" from ["a";"b";"c"]; "" from []. *)
Fixpoint join (n : name) : str :=
  match n with
  | [] => []
  | [c] => c
  | c :: n' => c ++ slash :: join n'
  end.

(** The code's splitting (repeated [strings.IndexByte(in, '/')], the empty
    string being special-cased as "no components"): [split_aux cur s] scans [s]
    with [cur] the reversed bytes of the component being read. *)
Fixpoint split_aux (cur : str) (s : str) : name :=
  match s with
  | [] => [rev cur]
  | b :: s' => if N.eqb b slash then rev cur :: split_aux [] s' else split_aux (b :: cur) s'
  end.
Definition split (s : str) : name :=
  match s with [] => [] | _ => split_aux [] s end.

(** Well-formed instance names (what [digest.NewInstanceName] lets through, as
    far as routing is concerned): every component non-empty and slash-free. *)
Definition comp_ok (c : comp) : bool :=
  negb (match c with [] => true | _ => false end) && forallb (fun b => negb (N.eqb b slash)) c.
Definition name_ok (n : name) : bool := forallb comp_ok n.

(** Component-wise prefix. *)
Fixpoint is_prefix (p n : name) : bool :=
  match p, n with
  | [], _ => true
  | c :: p', d :: n' => str_eqb c d && is_prefix p' n'
  | _ :: _, [] => false
  end.

(** Byte-wise (string) prefix — what component-wise prefix must NOT be confused with. *)
Fixpoint str_prefix (p s : str) : bool :=
  match p, s with
  | [], _ => true
  | x :: p', y :: s' => N.eqb x y && str_prefix p' s'
  | _ :: _, [] => false
  end.

(** All prefixes of a name, shortest first: [] ; [a] ; [a;b] ; ... *)
Fixpoint prefixes (n : name) : list name :=
  match n with
  | [] => [[]]
  | c :: n' => [] :: map (cons c) (prefixes n')
  end.

(** Outcomes of operations: a value, a gRPC status code, or a Go panic. *)
Inductive outcome (A : Type) : Type :=
| Ok (a : A)
| Err (code : Z)
| Panic.
Arguments Ok {A} a.
Arguments Err {A} code.
Arguments Panic {A}.

Definition INVALID_ARGUMENT : Z := 3%Z.
Definition NOT_FOUND : Z := 5%Z.

(** A digest: instance name (as the string the code stores) and the identity
    of the blob (function, hash, size — opaque here; C20 covers the packing). *)
Definition digest := (str * N)%type.
Definition dg_eqb (a b : digest) : bool := str_eqb (fst a) (fst b) && N.eqb (snd a) (snd b).
Definition dg_mem (d : digest) (l : list digest) : bool := existsb (dg_eqb d) l.

(** Canonical form of a digest set (digest.Set is sorted and duplicate-free;
    the order itself is C20's business): sort by (blob, name bytes). *)
Fixpoint str_leb (a b : str) : bool :=
  match a, b with
  | [], _ => true
  | _ :: _, [] => false
  | x :: a', y :: b' => if N.ltb x y then true else if N.eqb x y then str_leb a' b' else false
  end.
Definition dg_leb (a b : digest) : bool :=
  if N.ltb (snd a) (snd b) then true
  else if N.eqb (snd a) (snd b) then str_leb (fst a) (fst b) else false.
Fixpoint dg_insert (d : digest) (l : list digest) : list digest :=
  match l with
  | [] => [d]
  | h :: t => if dg_eqb d h then l else if dg_leb d h then d :: l else h :: dg_insert d t
  end.
Definition canon (l : list digest) : list digest := fold_right dg_insert [] l.
