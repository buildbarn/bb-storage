(** C19 — proofs about the instance-name patcher model (string level). *)
From Coq Require Import List ZArith NArith Bool Arith Lia.
From BBS Require Import Routing.Names Routing.NamesProofs Routing.Patcher.
Import ListNotations.

Lemma skipn_length_app {T} (a b : list T) : skipn (length a) (a ++ b) = b.
Proof. induction a; [reflexivity|exact IHa]. Qed.

Lemma join_cons_nonempty c r : comp_ok c = true -> join (c :: r) <> [].
Proof.
  intros H. apply comp_ok_spec in H as [H _]. destruct r; cbn; destruct c; try congruence; discriminate.
Qed.

Lemma with_slash_length s : length (with_slash s) = match s with [] => O | _ => S (length s) end.
Proof. destruct s; [reflexivity|]. unfold with_slash. rewrite app_length. cbn. lia. Qed.

(** The patcher on component lists of arbitrary strings.  [comps n]: [n] is the
    component list of its own string form; true of every well-formed name and of
    [split s] for every string [s] (so nothing is assumed of the configuration). *)
Definition comps (n : list comp) : Prop := split (join n) = n.
Lemma comps_nil n : comps n -> join n = [] -> n = [].
Proof. intros H E. rewrite <- H, E. reflexivity. Qed.

Lemma with_slash_join_g new c r :
  comps new -> with_slash (join new) ++ join (c :: r) = join (new ++ c :: r).
Proof.
  intros H. rewrite join_app_cons. destruct new as [|x new]; [reflexivity|].
  unfold with_slash. destruct (join (x :: new)) eqn:E.
  - apply (comps_nil _ H) in E. discriminate.
  - rewrite <- app_assoc. reflexivity.
Qed.

Lemma patch_str_g old new r :
  comps old -> comps new -> name_ok r = true ->
  patch_str (join (old ++ r)) (length (with_slash (join old))) (with_slash (join new)) (join new)
  = join (new ++ r).
Proof.
  intros Ho Hn Hr. unfold patch_str. destruct r as [|c r].
  - rewrite !app_nil_r. rewrite with_slash_length.
    destruct (join old) as [|x l] eqn:E; [reflexivity|].
    replace (Nat.ltb (S (length (x :: l))) (length (x :: l))) with false; [reflexivity|].
    symmetry. apply Nat.ltb_ge. lia.
  - assert (Hc : comp_ok c = true) by (cbn in Hr; apply andb_true_iff in Hr; tauto).
    pose proof (join_cons_nonempty c r Hc) as Hne.
    rewrite <- (with_slash_join_g old c r Ho), <- (with_slash_join_g new c r Hn).
    rewrite app_length.
    replace (Nat.ltb (length (with_slash (join old))) (length (with_slash (join old)) + length (join (c :: r)))) with true.
    + f_equal. rewrite skipn_app, skipn_all, Nat.sub_diag. reflexivity.
    + symmetry. apply Nat.ltb_lt. destruct (join (c :: r)); [congruence|]. cbn [length]. lia.
Qed.

Lemma patch_name_g old new r :
  comps old -> comps new -> name_ok r = true ->
  patch_name (new_patcher (join old) (join new)) (join (old ++ r)) = join (new ++ r).
Proof.
  intros Ho Hn Hr. unfold new_patcher. destruct (str_eqb (join old) (join new)) eqn:E.
  - apply str_eqb_eq in E. assert (old = new) as ->; [|reflexivity].
    transitivity (split (join old)); [symmetry; exact Ho|]. rewrite E. exact Hn.
  - cbn [patch_name]. apply patch_str_g; auto.
Qed.

Lemma comps_ok n : name_ok n = true -> comps n.
Proof. apply split_join. Qed.

Lemma join_inj a b : name_ok a = true -> name_ok b = true -> join a = join b -> a = b.
Proof. intros Ha Hb H. rewrite <- (split_join a Ha), <- (split_join b Hb), H. reflexivity. Qed.

(** PatchInstanceName: the old prefix is replaced by the new one, the rest is kept. *)
Lemma patch_name_spec old new r :
  name_ok old = true -> name_ok new = true -> name_ok r = true ->
  patch_name (new_patcher (join old) (join new)) (join (old ++ r)) = join (new ++ r).
Proof. intros Ho Hn Hr. apply patch_name_g; auto using comps_ok. Qed.

Lemma unpatch_name_swap o n x : unpatch_name (new_patcher o n) x = patch_name (new_patcher n o) x.
Proof.
  unfold new_patcher. rewrite (str_eqb_sym n o). destruct (str_eqb o n); reflexivity.
Qed.

Lemma unpatch_name_spec old new r :
  name_ok old = true -> name_ok new = true -> name_ok r = true ->
  unpatch_name (new_patcher (join old) (join new)) (join (new ++ r)) = join (old ++ r).
Proof. intros. rewrite unpatch_name_swap. apply patch_name_spec; auto. Qed.

Lemma unpatch_patch_name old new r :
  name_ok old = true -> name_ok new = true -> name_ok r = true ->
  let p := new_patcher (join old) (join new) in
  unpatch_name p (patch_name p (join (old ++ r))) = join (old ++ r).
Proof. intros Ho Hn Hr p. unfold p. rewrite patch_name_spec, unpatch_name_spec; auto. Qed.

Lemma unpatch_patch_digest old new r b :
  name_ok old = true -> name_ok new = true -> name_ok r = true ->
  let p := new_patcher (join old) (join new) in
  unpatch_digest p (patch_digest p (join (old ++ r), b)) = (join (old ++ r), b).
Proof.
  intros Ho Hn Hr p. unfold unpatch_digest, patch_digest. cbn [fst snd].
  f_equal. apply unpatch_patch_name; auto.
Qed.
