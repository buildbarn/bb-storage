(** C19 — proofs about the hierarchical-instance-names decorator model. *)
From Coq Require Import List ZArith NArith Bool Arith Lia.
From BBS Require Import Routing.Names Routing.NamesProofs Routing.HierNames.
Import ListNotations.
Open Scope Z_scope.

Lemma split_aux_nonempty cur s : split_aux cur s <> [].
Proof. revert cur; induction s as [|b s IH]; intros cur; cbn; [discriminate|]. destruct (N.eqb b slash); [discriminate|apply IH]. Qed.

Lemma join_cons_ne c n : n <> [] -> join (c :: n) = c ++ slash :: join n.
Proof. destruct n; [congruence|reflexivity]. Qed.

Lemma join_split_aux cur s : join (split_aux cur s) = rev cur ++ s.
Proof.
  revert cur; induction s as [|b s IH]; intros cur; cbn [split_aux].
  - cbn. rewrite app_nil_r. reflexivity.
  - destruct (N.eqb b slash) eqn:E.
    + apply N.eqb_eq in E. subst b. rewrite join_cons_ne by apply split_aux_nonempty.
      rewrite IH. reflexivity.
    + rewrite IH. cbn [rev]. rewrite <- app_assoc. reflexivity.
Qed.
Lemma join_split s : join (split s) = s.
Proof. destruct s; [reflexivity|]. unfold split. apply join_split_aux. Qed.

Lemma prefixes_last n : exists l, prefixes n = l ++ [n].
Proof.
  induction n as [|c n [l IH]]; [exists []; reflexivity|].
  cbn. rewrite IH, map_app. exists ([] :: map (cons c) l). reflexivity.
Qed.
Lemma parents_of_last d : exists l, parents_of d = l ++ [d].
Proof.
  unfold parents_of. destruct (prefixes_last (split (fst d))) as [l ->].
  rewrite map_app. cbn. rewrite join_split. destruct d; eexists; reflexivity.
Qed.
Lemma parents_of_self d : In d (parents_of d).
Proof. destruct (parents_of_last d) as [l ->]. apply in_or_app. right. left. reflexivity. Qed.
Lemma parents_of_nonempty d : parents_of d <> [].
Proof. destruct (parents_of_last d) as [l ->]. destruct l; discriminate. Qed.

Section GetProofs.
  Context {D : Type}.
  Variable get : digest -> outcome D.

  Lemma hier_get_chain_spec chain asked :
    chain <> [] -> (forall a, In a chain -> get a <> Panic) ->
    fst (hier_get_chain get chain asked) = first_answer get chain.
  Proof.
    revert asked; induction chain as [|a r IH]; intros asked Hne Hnp; [congruence|].
    cbn [hier_get_chain first_answer].
    destruct (get a) as [x|e|] eqn:Eg; [reflexivity| |exfalso; eapply Hnp; [left; reflexivity|exact Eg]].
    destruct (e =? NOT_FOUND) eqn:Ee; cbn [negb]; [|reflexivity].
    destruct r as [|b r]; [cbn; apply Z.eqb_eq in Ee; subst; reflexivity|].
    apply IH; [discriminate|]. intros x Hx. apply Hnp. right. exact Hx.
  Qed.

  (** the digests asked are a prefix of the chain, most specific first *)
  Lemma hier_get_chain_asked chain asked :
    exists k, snd (hier_get_chain get chain asked) = asked ++ firstn k chain.
  Proof.
    revert asked; induction chain as [|a r IH]; intros asked; cbn [hier_get_chain].
    - exists O. cbn. rewrite app_nil_r. reflexivity.
    - destruct (get a) as [x|e|]; try (exists 1%nat; reflexivity).
      destruct (negb (e =? NOT_FOUND)); [exists 1%nat; reflexivity|].
      destruct r as [|b r]; [exists 1%nat; reflexivity|].
      destruct (IH (asked ++ [a])) as [k Hk]. exists (S k). rewrite Hk, <- app_assoc. reflexivity.
  Qed.

  Lemma first_answer_skip pre l :
    (forall b, In b pre -> get b = Err NOT_FOUND) -> first_answer get (pre ++ l) = first_answer get l.
  Proof.
    induction pre as [|b pre IH]; intros Hpre; [reflexivity|]. cbn [app first_answer].
    rewrite (Hpre b) by (left; reflexivity). cbn. apply IH. intros; apply Hpre; right; auto.
  Qed.
  Lemma first_answer_found pre a post x :
    (forall b, In b pre -> get b = Err NOT_FOUND) -> get a = Ok x ->
    first_answer get (pre ++ a :: post) = Ok x.
  Proof. intros Hpre Ha. rewrite first_answer_skip by exact Hpre. cbn. rewrite Ha. reflexivity. Qed.
  Lemma first_answer_error pre a post e :
    (forall b, In b pre -> get b = Err NOT_FOUND) -> get a = Err e -> e <> NOT_FOUND ->
    first_answer get (pre ++ a :: post) = Err e.
  Proof.
    intros Hpre Ha He. rewrite first_answer_skip by exact Hpre. cbn. rewrite Ha.
    apply Z.eqb_neq in He. rewrite He. reflexivity.
  Qed.
  Lemma first_answer_not_found chain :
    (forall b, In b chain -> get b <> Panic) ->
    (first_answer get chain = Err NOT_FOUND <-> forall b, In b chain -> get b = Err NOT_FOUND).
  Proof.
    induction chain as [|a r IH]; intros Hnp; cbn.
    - split; [intros _ b []|reflexivity].
    - assert (Hr : forall b, In b r -> get b <> Panic) by (intros; apply Hnp; right; auto).
      destruct (get a) as [x|e|] eqn:Ea.
      + split; [discriminate|]. intros H. specialize (H a (or_introl eq_refl)). congruence.
      + destruct (e =? NOT_FOUND) eqn:E.
        * apply Z.eqb_eq in E. subst e. split.
          -- intros H b [<-|Hb]; [exact Ea|exact (proj1 (IH Hr) H b Hb)].
          -- intros H. apply (IH Hr). intros b Hb. apply H. right. exact Hb.
        * apply Z.eqb_neq in E. split; [intros [= ->]; contradiction|].
          intros H. specialize (H a (or_introl eq_refl)). congruence.
      + exfalso. eapply Hnp; [left; reflexivity|exact Ea].
  Qed.
End GetProofs.

Lemma hier_get_first_answer (D : Type) (get : digest -> outcome D) d :
  (forall a, get a <> Panic) ->
  fst (hier_get get d) = first_answer get (rev (parents_of d)).
Proof.
  intros H. apply hier_get_chain_spec.
  - intros E. apply (f_equal (@rev _)) in E. rewrite rev_involutive in E. exact (parents_of_nonempty d E).
  - intros a _. apply H.
Qed.

Lemma swap_in_In x rest : In x (swap_in rest) <-> In x rest.
Proof.
  destruct rest as [|e r]; [reflexivity|]. unfold swap_in.
  assert (E : e :: r = removelast (e :: r) ++ [last (e :: r) (([], 0%N), [])])
    by (apply app_removelast_last; discriminate).
  set (l := removelast (e :: r)) in *. set (a := last (e :: r) _) in *. rewrite E.
  cbn [In]. rewrite in_app_iff. cbn [In]. tauto.
Qed.
Lemma removelast_len {X} (l : list X) : l <> [] -> S (length (removelast l)) = length l.
Proof.
  induction l as [|a l IH]; [congruence|]. intros _. destruct l as [|b l]; [reflexivity|].
  change (removelast (a :: b :: l)) with (a :: removelast (b :: l)). cbn [length]. f_equal. apply IH. discriminate.
Qed.
Lemma swap_in_length rest : length (swap_in rest) = length rest.
Proof.
  destruct rest as [|e r]; [reflexivity|]. unfold swap_in. cbn [length].
  apply (removelast_len (e :: r)). discriminate.
Qed.

Definition miss (missing : list digest) (e : wentry) : bool := dg_mem (last_parent e) missing.
Definition more (e : wentry) : bool := Nat.ltb 1 (length (snd e)).
Definition trim (e : wentry) : wentry := (fst e, removelast (snd e)).

Definition wl (missing : list digest) (todo : list wentry) : list wentry :=
  map trim (filter (fun e => miss missing e && more e) todo).
Definition fl (missing : list digest) (todo : list wentry) : list digest :=
  map fst (filter (fun e => miss missing e && negb (more e)) todo).

Definition same {X} (a b : list X) : Prop := forall x, In x a <-> In x b.

Lemma same_tail {X} (w a b b' : list X) : same b b' -> same w (a ++ b) -> same w (a ++ b').
Proof.
  intros Hb Hw x. rewrite (Hw x), !in_app_iff. apply or_iff_compat_l, Hb.
Qed.

Lemma in_map_filter {X Y} (g : X -> Y) p l y :
  In y (map g (filter p l)) <-> exists e, In e l /\ p e = true /\ y = g e.
Proof.
  rewrite in_map_iff. split.
  - intros [e [<- He]]. apply filter_In in He as [He Hp]. exists e. auto.
  - intros [e [He [Hp ->]]]. exists e. split; [reflexivity|]. apply filter_In. auto.
Qed.

Lemma sel_swap {Y} (g : wentry -> Y) p rest :
  same (map g (filter p (swap_in rest))) (map g (filter p rest)).
Proof.
  intros y. rewrite !in_map_filter.
  split; intros [e [He H]]; exists e; (split; [apply swap_in_In; exact He|exact H]).
Qed.

Lemma in_wl ms todo x :
  In x (wl ms todo) <-> exists e, In e todo /\ miss ms e = true /\ more e = true /\ x = trim e.
Proof.
  unfold wl. rewrite in_map_filter.
  split; intros [e [He [H Hx]]]; exists e; (split; [exact He|]);
    [apply andb_true_iff in H as [Hm Ho]; auto|destruct Hx as [Ho Hx]; rewrite H, Ho; auto].
Qed.
Lemma in_fl ms todo d :
  In d (fl ms todo) <-> exists e, In e todo /\ miss ms e = true /\ more e = false /\ d = fst e.
Proof.
  unfold fl. rewrite in_map_filter.
  split; intros [e [He [H Hx]]]; exists e; (split; [exact He|]).
  - apply andb_true_iff in H as [Hm Ho]. apply negb_true_iff in Ho. auto.
  - destruct Hx as [Ho Hx]. rewrite H, Ho. auto.
Qed.

(** up to order, a scan appends [wl] to the entries kept so far and [fl] to the
    final list; the only reordering is [swap_in] *)
Lemma scan_spec missing : forall fuel done todo final w f,
  (length todo <= fuel)%nat ->
  scan fuel missing done todo final = (w, f) ->
  same w (done ++ wl missing todo) /\ same f (final ++ fl missing todo).
Proof.
  assert (Hnil : forall done final w f, (done, final) = (w, f) ->
            same w (done ++ wl missing []) /\ same f (final ++ fl missing [])).
  { intros done final w f [= <- <-]. unfold wl, fl. cbn [filter map]. rewrite !app_nil_r.
    split; intros x; reflexivity. }
  induction fuel as [|fuel IH]; intros done todo final w f Hl H.
  - destruct todo; [|cbn in Hl; lia]. cbn [scan] in H. rewrite app_nil_r in H. apply Hnil, H.
  - cbn [scan] in H. destruct todo as [|e rest]; [apply Hnil, H|].
    cbn [length] in Hl. fold (miss missing e) in H. fold (more e) in H. fold (trim e) in H.
    unfold wl, fl. cbn [filter].
    destruct (miss missing e); cbn [negb andb] in *.
    + destruct (more e); cbn [negb map] in *.
      * apply IH in H as [H1 H2]; [|lia]. rewrite <- app_assoc in H1. split; assumption.
      * apply IH in H as [H1 H2]; [|rewrite swap_in_length; lia].
        apply (same_tail _ _ _ _ (sel_swap _ _ rest)) in H1, H2.
        rewrite <- app_assoc in H2. split; assumption.
    + apply IH in H as [H1 H2]; [|rewrite swap_in_length; lia].
      apply (same_tail _ _ _ _ (sel_swap _ _ rest)) in H1, H2. split; assumption.
Qed.

Definition maxlen (work : list wentry) : nat := fold_right Nat.max O (map (fun e => length (snd e)) work).
Lemma maxlen_ge work e : In e work -> (length (snd e) <= maxlen work)%nat.
Proof.
  unfold maxlen. induction work as [|x work IH]; [intros []|]. intros [<-|H]; cbn; [lia|]. specialize (IH H). lia.
Qed.
Lemma maxlen_le work b : (forall e, In e work -> (length (snd e) <= b)%nat) -> (maxlen work <= b)%nat.
Proof.
  unfold maxlen. induction work as [|x work IH]; intros H; cbn; [lia|].
  pose proof (H x (or_introl eq_refl)). specialize (IH (fun e He => H e (or_intror He))). lia.
Qed.

Definition deep (d : digest) : bool := Nat.ltb 1 (length (parents_of d)).
Definition went (d : digest) : wentry := (d, removelast (parents_of d)).

Lemma classify_eq : forall ms work final,
  classify ms work final
  = (work ++ map went (filter deep ms), final ++ filter (fun d => negb (deep d)) ms).
Proof.
  induction ms as [|d ms IH]; intros work final; cbn [classify filter map]; [rewrite !app_nil_r; reflexivity|].
  fold (deep d). destruct (deep d); cbn [negb map]; rewrite IH, <- app_assoc; reflexivity.
Qed.

Lemma went_nonempty d : deep d = true -> snd (went d) <> [].
Proof.
  unfold deep, went. cbn [snd]. intros H. apply Nat.ltb_lt in H.
  destruct (parents_of d) as [|a [|b l]]; cbn in H; try lia. discriminate.
Qed.

Lemma levels_step fm fuel k work final asked : work <> [] ->
  levels fm (S fuel) k work final asked =
  let q := canon (map last_parent work) in
  match fm k q with
  | Err e => (Err e, asked ++ [q])
  | Panic => (Panic, asked ++ [q])
  | Ok missing =>
      let '(work', final') := scan (length work) missing [] work final in
      levels fm fuel (S k) work' final' (asked ++ [q])
  end.
Proof. destruct work; [congruence|reflexivity]. Qed.

Lemma trim_progress work w' : work <> [] -> (forall e, In e work -> snd e <> []) ->
  (forall x, In x w' -> exists e, In e work /\ more e = true /\ x = trim e) ->
  (forall x, In x w' -> snd x <> []) /\ (maxlen w' < maxlen work)%nat.
Proof.
  intros Hw Hne Hw'.
  assert (Ht : forall e, more e = true -> snd (trim e) <> [] /\ S (length (snd (trim e))) = length (snd e)).
  { intros e Hm. unfold trim, more in *. cbn [snd]. apply Nat.ltb_lt in Hm.
    split; [destruct (snd e) as [|a [|b l]]; cbn in Hm; try lia; discriminate|].
    apply removelast_len. destruct (snd e); [cbn in Hm; lia|discriminate]. }
  split.
  - intros x Hx. destruct (Hw' x Hx) as [e [_ [Hm ->]]]. apply Ht, Hm.
  - assert (Hge : (1 <= maxlen work)%nat).
    { destruct work as [|e0 r]; [congruence|].
      pose proof (maxlen_ge (e0 :: r) e0 (or_introl eq_refl)) as G. pose proof (Hne e0 (or_introl eq_refl)) as G2.
      destruct (snd e0); [congruence|]. cbn [length] in G. lia. }
    assert (maxlen w' <= pred (maxlen work))%nat; [|lia].
    apply maxlen_le. intros x Hx. destruct (Hw' x Hx) as [e [He [Hm ->]]].
    pose proof (maxlen_ge _ _ He). destruct (Ht e Hm) as [_ Hl]. lia.
Qed.

Section Honest.
  (** a backend whose contents do not change during the operation *)
  Variable present : digest -> bool.
  Definition honest_fm (k : nat) (q : list digest) : outcome (list digest) :=
    Ok (filter (fun d => negb (present d)) q).

  Definition resolve (e : wentry) : bool := forallb (fun a => negb (present a)) (snd e).

  Lemma resolve_split e : snd e <> [] ->
    resolve e = negb (present (last_parent e)) && resolve (trim e).
  Proof.
    intros Hne. unfold resolve, last_parent, trim. cbn [snd].
    pose proof (app_removelast_last (fst e) Hne) as E.
    set (l := removelast (snd e)) in *. set (a := last (snd e) (fst e)) in *. rewrite E.
    rewrite forallb_app. cbn. rewrite andb_true_r. apply andb_comm.
  Qed.
  Lemma resolve_trim_nomore e : snd e <> [] -> more e = false -> resolve (trim e) = true.
  Proof.
    unfold more, resolve, trim. intros Hne Hm. apply Nat.ltb_ge in Hm. cbn [snd].
    destruct (snd e) as [|a [|b l]]; [congruence|reflexivity|cbn in Hm; lia].
  Qed.

  Lemma levels_spec : forall fuel k work final asked,
    (forall e, In e work -> snd e <> []) ->
    (maxlen work < fuel)%nat ->
    exists res asked', levels honest_fm fuel k work final asked = (Ok res, asked') /\
      forall d, In d res <-> In d final \/ exists e, In e work /\ resolve e = true /\ d = fst e.
  Proof.
    induction fuel as [|fuel IH]; intros k work final asked Hne Hlen; [lia|].
    destruct work as [|e0 work0].
    - cbn. eexists _, _. split; [reflexivity|]. intros d. rewrite canon_In.
      split; [auto|]. intros [H|[e [[] _]]]; exact H.
    - remember (e0 :: work0) as work eqn:Ew.
      assert (Hw : work <> []) by (subst work; discriminate).
      rewrite (levels_step _ _ _ _ _ _ Hw). unfold honest_fm at 1. cbv beta iota zeta.
      set (missing := filter (fun d => negb (present d)) (canon (map last_parent work))).
      destruct (scan _ missing _ _ _) as [w' f'] eqn:Es.
      apply scan_spec in Es as [H1 H2]; [|apply Nat.le_refl]. cbn [app] in H1.
      assert (Hmiss : forall e, In e work -> miss missing e = negb (present (last_parent e))).
      { intros e He. unfold miss, missing.
        destruct (present (last_parent e)) eqn:Ep; cbn [negb].
        - destruct (dg_mem _ _) eqn:Em; [|reflexivity]. apply dg_mem_In, filter_In in Em as [_ Em].
          rewrite Ep in Em. discriminate.
        - apply dg_mem_In, filter_In. split; [|rewrite Ep; reflexivity].
          apply canon_In, in_map. exact He. }
      assert (Hw' : forall x, In x w' -> exists e, In e work /\ miss missing e = true /\ more e = true /\ x = trim e).
      { intros x Hx. apply in_wl, H1, Hx. }
      destruct (trim_progress work w' Hw Hne) as [Hne' Hlt].
      { intros x Hx. destruct (Hw' x Hx) as [e [He [_ [Hm Hx']]]]. eauto. }
      destruct (IH (S k) w' f' (asked ++ [canon (map last_parent work)]) Hne') as [res [asked' [Hr Hres]]]; [lia|].
      exists res, asked'. split; [exact Hr|]. intros d. rewrite Hres, (H2 d), in_app_iff, in_fl. split.
      * intros [[Hd|[e [He [Hm [Ho ->]]]]]|[x [Hx [Hrx ->]]]]; [left; exact Hd| |].
        -- right. exists e. split; [exact He|]. split; [|reflexivity].
           rewrite resolve_split by auto. rewrite <- (Hmiss e He), Hm. cbn. apply resolve_trim_nomore; auto.
        -- destruct (Hw' x Hx) as [e [He [Hm [Ho ->]]]]. right. exists e. split; [exact He|]. split; [|reflexivity].
           rewrite resolve_split by auto. rewrite <- (Hmiss e He), Hm. cbn. exact Hrx.
      * intros [Hd|[e [He [Hre ->]]]]; [left; left; exact Hd|].
        rewrite resolve_split in Hre by auto. apply andb_true_iff in Hre as [Hp Ht].
        rewrite <- (Hmiss e He) in Hp.
        destruct (more e) eqn:Eo.
        -- right. exists (trim e). split; [|split; [exact Ht|reflexivity]].
           apply H1, in_wl. exists e. auto.
        -- left. right. exists e. auto.
  Qed.

  Lemma absent_everywhere d :
    (forall a, In a (parents_of d) -> present a = false) <-> present d = false /\ resolve (went d) = true.
  Proof.
    destruct (parents_of_last d) as [l El]. unfold resolve, went. cbn [snd].
    rewrite El, removelast_last, forallb_forall. split.
    - intros H. split; [apply H, in_elt|]. intros a Ha. apply negb_true_iff, H, in_or_app. left. exact Ha.
    - intros [Hp Hr] a Ha. apply in_app_iff in Ha as [Ha|[<-|[]]]; [apply negb_true_iff, Hr, Ha|exact Hp].
  Qed.
  Lemma resolve_shallow d : deep d = false -> resolve (went d) = true.
  Proof.
    unfold deep, resolve, went. cbn [snd]. intros H. apply Nat.ltb_ge in H.
    destruct (parents_of d) as [|a [|b l]]; [reflexivity|reflexivity|cbn in H; lia].
  Qed.

  (** FindMissing of the decorator over a stable backend: a digest is reported
      missing exactly when it is missing under its name and all ancestors;
      the work-list loop terminates (no [Panic] from running out of fuel). *)
  Lemma hier_fm_honest ds :
    exists res asked, hier_fm honest_fm ds = (Ok res, asked) /\
      forall d, In d res <-> In d ds /\ forall a, In a (parents_of d) -> present a = false.
  Proof.
    unfold hier_fm. cbn [honest_fm].
    set (ms := canon (filter (fun d => negb (present d)) (canon ds))).
    rewrite classify_eq. cbn [app].
    assert (Hms : forall d, In d ms <-> In d ds /\ present d = false).
    { intros d. unfold ms. rewrite canon_In, filter_In, canon_In. rewrite negb_true_iff. tauto. }
    destruct (levels_spec (S (maxlen (map went (filter deep ms)))) 1%nat (map went (filter deep ms))
                (filter (fun d => negb (deep d)) ms) [canon ds]) as [res [asked [Hr Hres]]].
    - intros e He. apply in_map_filter in He as [d [_ [Hl ->]]]. exact (went_nonempty d Hl).
    - lia.
    - exists res, asked. split; [exact Hr|]. intros d.
      rewrite Hres, filter_In, absent_everywhere, <- and_assoc, <- Hms. split.
      + intros [[Hd Hl]|[e [He [Hre ->]]]].
        * split; [exact Hd|]. apply resolve_shallow, negb_true_iff, Hl.
        * apply in_map_filter in He as [d [Hd [_ ->]]]. split; [exact Hd|exact Hre].
      + intros [Hd Hre]. destruct (deep d) eqn:E; [right|left; auto].
        exists (went d). split; [apply in_map_filter; exists d; auto|auto].
  Qed.
End Honest.

Lemma classify_nonempty ms work final w f :
  classify ms work final = (w, f) -> (forall e, In e work -> snd e <> []) -> forall e, In e w -> snd e <> [].
Proof.
  rewrite classify_eq. intros [= <- _] Hw e He. apply in_app_iff in He as [He|He]; [apply Hw, He|].
  apply in_map_filter in He as [d [_ [Hl ->]]]. exact (went_nonempty d Hl).
Qed.

Lemma levels_no_panic (fm : nat -> list digest -> outcome (list digest)) :
  (forall k q, fm k q <> Panic) ->
  forall fuel k work final asked,
    (forall e, In e work -> snd e <> []) -> (maxlen work < fuel)%nat ->
    fst (levels fm fuel k work final asked) <> Panic.
Proof.
  intros Hfm. induction fuel as [|fuel IH]; intros k work final asked Hne Hlen; [lia|].
  destruct work as [|e0 work0]; [cbn; discriminate|].
  remember (e0 :: work0) as work eqn:Ew.
  assert (Hw : work <> []) by (subst work; discriminate).
  rewrite (levels_step _ _ _ _ _ _ Hw). cbv zeta.
  destruct (fm k (canon (map last_parent work))) as [missing|e|] eqn:Ef; [|cbn; discriminate|exfalso; eapply Hfm; exact Ef].
  destruct (scan _ missing _ _ _) as [w' f'] eqn:Es.
  apply scan_spec in Es as [H1 _]; [|apply Nat.le_refl]. cbn [app] in H1.
  destruct (trim_progress work w' Hw Hne) as [Hne' Hlt].
  { intros x Hx. apply H1, in_wl in Hx as [e [He [_ [Hm Hx]]]]. eauto. }
  apply IH; [exact Hne'|lia].
Qed.

(** whatever the backend answers (errors, answers changing between calls), the
    work-list loop of FindMissing terminates within the fuel *)
Lemma hier_fm_no_panic (fm : nat -> list digest -> outcome (list digest)) ds :
  (forall k q, fm k q <> Panic) -> fst (hier_fm fm ds) <> Panic.
Proof.
  intros Hfm. unfold hier_fm. destruct (fm O (canon ds)) as [m0|e|] eqn:E0; [|cbn; discriminate|exfalso; eapply Hfm; exact E0].
  destruct (classify (canon m0) [] []) as [work final] eqn:Ec.
  apply levels_no_panic; [exact Hfm| |unfold maxlen; lia].
  eapply classify_nonempty; [exact Ec|intros ? []].
Qed.
