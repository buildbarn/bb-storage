(** C19 — the demultiplexer part of the monitor [mon19] is silent on the
    model's own output (input kind 2).

    The monitor speaks at specification level ([owner], [rw_dg], [bfault],
    [bpresent]); the model at code level (trie lookup, string patcher,
    partition list of FindMissing).  They agree under two hypotheses:
      - [op_wf op]: every digest of the operation carries a well-formed
        instance name, [name_ok (split inst) = true] (for GetFromComposite only
        when parent and child carry the same name: otherwise the monitor is
        silent by definition);
      - [length cfg <= length bsx]: every owner index has a backend.
    Both are necessary (counterexamples at the end of the file).  Nothing is
    assumed of the configuration strings ([cfg_ok] is not needed: the patcher
    lemmas hold for component lists of arbitrary strings, [PatcherProofs.comps]),
    nor of the fault codes (negative ones included), nor of the backends'
    contents.

    Main results: [mon_demux_get_silent], [mon_demux_gfc_silent],
    [mon_demux_put_silent] (clauses 6 7 8), [mon_demux_fm_silent] (clauses 6 8
    9 10), [mon_demux_op_silent], [mon19_silent_on_demux_model]. *)
From Coq Require Import List ZArith NArith Bool Arith Lia.
From BBS Require Import Common.Sx Common.SxFactsMA Routing.Names Routing.NamesProofs Routing.Trie Routing.TrieProofs
  Routing.Patcher Routing.PatcherProofs Routing.Demux Routing.DemuxProofs Routing.HierProofs
  Routing.TrieFullMonCanon Routing.TrieFullMonHier Run.R19.
Import ListNotations.
Open Scope Z_scope.

Lemma dgs_eqb_refl l : dgs_eqb l l = true.
Proof. apply sx_eqb_refl. Qed.

Definition call_of (c : call) : nat * Z * list digest :=
  match c with
  | CGet i d => (i, 0, [d])
  | CGfc i p c => (i, 1, [p; c])
  | CPut i d => (i, 2, [d])
  | CFm i ds => (i, 3, ds)
  end.
Lemma call_enc c : call_idx (enc_call c) = fst (fst (call_of c))
  /\ call_kind (enc_call c) = snd (fst (call_of c)) /\ call_dgs (enc_call c) = snd (call_of c).
Proof.
  destruct c; unfold call_idx, call_kind, call_dgs, enc_call; cbn [sx_nth sx_list nth call_of fst snd];
    rewrite sx_nat_of_nat, dec_enc_dgs; auto.
Qed.

Definition kind4 (z : Z) : nat :=
  match z with 0 => 0%nat | 1 => 1%nat | 2 => 2%nat | _ => 3%nat end.
Lemma zmatch4 {T} z (a0 a1 a2 d : T) :
  match z with 0 => a0 | 1 => a1 | 2 => a2 | _ => d end =
  match kind4 z with 0%nat => a0 | 1%nat => a1 | 2%nat => a2 | _ => d end.
Proof.
  destruct z as [|p|p]; try reflexivity; do 2 (try (destruct p as [p|p|]; try reflexivity)).
Qed.

Definition dg_wf (d : digest) : bool := name_ok (split (fst d)).
(** GetFromComposite is specified only when parent and child carry the same name *)
Definition op_wf (op : sx) : bool :=
  match kind4 (sx_Z (sx_nth op 0)) with
  | 0%nat | 2%nat => dg_wf (dec_dg (sx_nth op 1))
  | 1%nat => if str_eqb (fst (dec_dg (sx_nth op 1))) (fst (dec_dg (sx_nth op 2)))
             then dg_wf (dec_dg (sx_nth op 1)) else true
  | _ => forallb dg_wf (dec_dgs (sx_nth op 1))
  end.
Lemma mk_backends_nth bsx : forall k i, (i < length bsx)%nat ->
  nth_error (mk_backends k bsx) i = Some (mk_backend (k + i) (nth i bsx (L []))).
Proof.
  induction bsx as [|s r IH]; intros k i Hi; [cbn in Hi; lia|].
  destruct i as [|i]; cbn [mk_backends nth_error nth].
  - rewrite Nat.add_0_r. reflexivity.
  - rewrite IH by (cbn in Hi; lia). replace (S k + i)%nat with (k + S i)%nat by lia. reflexivity.
Qed.
Lemma b_get_mk i bsx d : b_get (mk_backend i (nth i bsx (L []))) d =
  if negb (bfault bsx i =? 0) then Err (bfault bsx i)
  else if dg_mem d (bpresent bsx i) then Ok (i, d) else Err NOT_FOUND.
Proof. reflexivity. Qed.
Lemma b_gfc_mk i bsx p c : b_gfc (mk_backend i (nth i bsx (L []))) p c =
  if negb (bfault bsx i =? 0) then Err (bfault bsx i)
  else if dg_mem p (bpresent bsx i) then Ok (i, c) else Err NOT_FOUND.
Proof. reflexivity. Qed.
Lemma b_put_mk i bsx d : b_put (mk_backend i (nth i bsx (L []))) d = bfault bsx i.
Proof. reflexivity. Qed.
Lemma b_fm_mk i bsx q : b_fm (mk_backend i (nth i bsx (L []))) q =
  if negb (bfault bsx i =? 0) then Err (bfault bsx i)
  else Ok (filter (fun d => negb (dg_mem d (bpresent bsx i))) q).
Proof. reflexivity. Qed.

Lemma comps_split s : comps (split s).
Proof. unfold comps. rewrite join_split. reflexivity. Qed.

(** On a well-formed name the getter either rejects it (no owner) or returns
    the owner's index and a patcher that computes the specification-level
    rewriting and is undone by unpatching.  Whatever the configuration. *)
Lemma gb_wf cfg inst : name_ok (split inst) = true ->
  (get_backend cfg inst = Err INVALID_ARGUMENT /\ owner cfg inst = -1) \/
  exists i key p, get_backend cfg inst = Ok (i, key, p) /\ owner cfg inst = Z.of_nat i /\
    (i < length cfg)%nat /\ patch_name p inst = rewrite cfg i inst /\
    unpatch_name p (patch_name p inst) = inst.
Proof.
  intros Hm. destruct (gb_cases cfg inst) as [H|[k [e [Hg [Hn [Ho [_ Hp]]]]]]]; [left; exact H|]. right.
  exists k, (fst e), (entry_patcher e). split; [exact Hg|]. split; [exact Ho|].
  split; [exact (gb_range _ _ _ _ _ Hg)|].
  apply is_prefix_iff in Hp as [r Hs].
  assert (Hr : name_ok r = true).
  { rewrite Hs, name_ok_app in Hm. apply andb_true_iff in Hm. tauto. }
  pose proof (join_split inst) as Hinst. rewrite Hs in Hinst. symmetry in Hinst.
  assert (Hpat : entry_patcher e = new_patcher (join (split (fst e))) (join (split (snd e))))
    by (rewrite !join_split; reflexivity).
  split.
  - unfold rewrite. rewrite Hn, Hs, skipn_length_app, Hpat, Hinst.
    apply patch_name_g; auto using comps_split.
  - rewrite Hpat, Hinst. rewrite patch_name_g, unpatch_name_swap, patch_name_g; auto using comps_split.
Qed.

Definition sent_ok (calls : list sx) (i : nat) (kind : Z) (want : list digest) : bool :=
  match calls with
  | [c] => Nat.eqb (call_idx c) i && (call_kind c =? kind) && dgs_eqb (call_dgs c) want
  | _ => false
  end.
Definition answer_of (bsx : list sx) (i : nat) (kind code : Z) (data : sx) (has : bool) (r : digest) : list Z :=
  let f := bfault bsx i in
  match kind with
  | 2 => if code =? f then [] else [8]
  | _ =>
      if negb (f =? 0) then (if code =? f then [] else [8])
      else if has then
        (if (code =? 0) && sx_eqb data (L [of_nat i; enc_str (fst r); of_N (snd r)]) then [] else [8])
      else (if code =? NOT_FOUND then [] else [8])
  end.
(** the monitor of Get / GetFromComposite / Put, with the observation taken apart *)
Definition mon_single (cfg : list centry) (bsx : list sx) (code : Z) (data : sx) (calls : list sx)
    (kind : Z) (d : digest) (others : list digest) : list Z :=
  let o := owner cfg (fst d) in
  if o <? 0 then (if (code =? INVALID_ARGUMENT) && is_nil calls then [] else [6])
  else
    let i := Z.to_nat o in
    let want := map (rw_dg cfg i) (d :: others) in
    (if sent_ok calls i kind want then [] else [7]) ++
    answer_of bsx i kind code data (dg_mem (rw_dg cfg i d) (bpresent bsx i)) (last want d).

Definition own (cfg : list centry) (d : digest) : nat := Z.to_nat (owner cfg (fst d)).
(** clause 10: every call is a FindMissing about rewritten digests its backend owns, at most one per backend *)
Definition c10 (cfg : list centry) (ds : list digest) (calls : list sx) : bool :=
  forallb (fun c => (call_kind c =? 3)
                    && subset (call_dgs c)
                              (map (rw_dg cfg (call_idx c))
                                   (filter (fun d => Nat.eqb (own cfg d) (call_idx c)) ds))) calls
  && nodup_nat (map call_idx calls).
Definition c8 (bsx : list sx) (code : Z) (owners : list nat) : bool :=
  existsb (fun i => (code =? bfault bsx i) && negb (code =? 0)) owners.
Definition c9 (cfg : list centry) (bsx : list sx) (code : Z) (data : sx) (calls : list sx) (ds : list digest) : bool :=
  (code =? 0)
  && dgs_eqb (canon (dec_dgs data))
       (canon (filter (fun d => negb (dg_mem (rw_dg cfg (own cfg d) d) (bpresent bsx (own cfg d)))) ds))
  && forallb (fun i => existsb (fun c => Nat.eqb (call_idx c) i) calls) (map (own cfg) ds).

(** the monitor of FindMissing, with the observation taken apart *)
Definition mon_fm (cfg : list centry) (bsx : list sx) (code : Z) (data : sx) (calls : list sx)
    (ds0 : list digest) : list Z :=
  let ds := canon ds0 in
  if existsb (fun d => owner cfg (fst d) <? 0) ds
  then (if (code =? INVALID_ARGUMENT) && is_nil calls then [] else [6])
  else
    (if c10 cfg ds calls then [] else [10]) ++
    (if existsb (fun i => negb (bfault bsx i =? 0)) (map (own cfg) ds) then
       (if c8 bsx code (map (own cfg) ds) then [] else [8])
     else
       (if c9 cfg bsx code data calls ds then [] else [9])).

Lemma mon_demux_op_eq cfg bsx op ob :
  mon_demux_op cfg bsx op ob =
  let code := sx_Z (sx_nth ob 0) in
  let data := sx_nth ob 1 in
  let calls := sx_list (sx_nth ob 2) in
  match kind4 (sx_Z (sx_nth op 0)) with
  | 0%nat => mon_single cfg bsx code data calls 0 (dec_dg (sx_nth op 1)) []
  | 1%nat => if str_eqb (fst (dec_dg (sx_nth op 1))) (fst (dec_dg (sx_nth op 2)))
             then mon_single cfg bsx code data calls 1 (dec_dg (sx_nth op 1)) [dec_dg (sx_nth op 2)] else []
  | 2%nat => mon_single cfg bsx code data calls 2 (dec_dg (sx_nth op 1)) []
  | _ => mon_fm cfg bsx code data calls (dec_dgs (sx_nth op 1))
  end.
Proof. unfold mon_demux_op. apply zmatch4. Qed.

Lemma run_demux_op_eq cfg bs op :
  run_demux_op cfg bs op =
  match kind4 (sx_Z (sx_nth op 0)) with
  | 0%nat => let '(r, calls) := demux_get cfg bs (dec_dg (sx_nth op 1)) in
             let '(c, d) := enc_data r in enc_op3 c d calls
  | 1%nat => let '(r, calls) := demux_gfc cfg bs (dec_dg (sx_nth op 1)) (dec_dg (sx_nth op 2)) in
             let '(c, d) := enc_data r in enc_op3 c d calls
  | 2%nat => let '(r, calls) := demux_put cfg bs (dec_dg (sx_nth op 1)) in
             match r with
             | Ok (code, discarded) => enc_op3 (A code) (L [A (if discarded then 2 else 1)]) calls
             | _ => enc_op3 (A (-1)) (L []) calls
             end
  | _ => let '(r, calls) := demux_fm cfg bs (dec_dgs (sx_nth op 1)) in
         match r with
         | Ok ms => enc_op3 (A 0) (enc_dgs ms) calls
         | Err e => enc_op3 (A e) (L []) calls
         | Panic => enc_op3 (A (-1)) (L []) calls
         end
  end.
Proof. unfold run_demux_op. apply zmatch4. Qed.

Lemma mon_demux_op_obs cfg bsx op c d calls :
  mon_demux_op cfg bsx op (enc_op3 c d calls) =
  match kind4 (sx_Z (sx_nth op 0)) with
  | 0%nat => mon_single cfg bsx (sx_Z c) d (map enc_call calls) 0 (dec_dg (sx_nth op 1)) []
  | 1%nat => if str_eqb (fst (dec_dg (sx_nth op 1))) (fst (dec_dg (sx_nth op 2)))
             then mon_single cfg bsx (sx_Z c) d (map enc_call calls) 1 (dec_dg (sx_nth op 1)) [dec_dg (sx_nth op 2)]
             else []
  | 2%nat => mon_single cfg bsx (sx_Z c) d (map enc_call calls) 2 (dec_dg (sx_nth op 1)) []
  | _ => mon_fm cfg bsx (sx_Z c) d (map enc_call calls) (dec_dgs (sx_nth op 1))
  end.
Proof. apply mon_demux_op_eq. Qed.

Lemma mon_single_unknown cfg bsx data kind d others :
  owner cfg (fst d) = -1 -> mon_single cfg bsx INVALID_ARGUMENT data [] kind d others = [].
Proof. intros H. unfold mon_single. rewrite H. reflexivity. Qed.

Lemma zmatch2 {T} k (a d : T) : k <> 2 -> match k with 2 => a | _ => d end = d.
Proof. intros H. destruct k as [|[[p|p|]|[p|p|]|]|p]; congruence || reflexivity. Qed.

Lemma sent_ok_enc c i kind want : call_of c = (i, kind, want) -> sent_ok [enc_call c] i kind want = true.
Proof.
  intros Hc. unfold sent_ok. destruct (call_enc c) as [E1 [E2 E3]]. rewrite E1, E2, E3, Hc. cbn [fst snd].
  rewrite Nat.eqb_refl, Z.eqb_refl, dgs_eqb_refl. reflexivity.
Qed.
Lemma answer_put bsx i data has r : answer_of bsx i 2 (bfault bsx i) data has r = [].
Proof. unfold answer_of. cbv zeta. rewrite Z.eqb_refl. reflexivity. Qed.
Lemma answer_read bsx i kind (code data : sx) (has : bool) r : kind <> 2 ->
  (code, data) = enc_data (if negb (bfault bsx i =? 0) then Err (bfault bsx i)
                           else if has then Ok (i, r) else Err NOT_FOUND) ->
  answer_of bsx i kind (sx_Z code) data has r = [].
Proof.
  intros Hk Hr. unfold answer_of. cbv zeta. rewrite (zmatch2 _ _ _ Hk).
  destruct (negb (bfault bsx i =? 0)); [|destruct has]; injection Hr as -> ->; cbn [sx_Z fst snd].
  - rewrite Z.eqb_refl. reflexivity.
  - rewrite sx_eqb_refl. reflexivity.
  - reflexivity.
Qed.

Lemma mon_single_known cfg bsx (code data : sx) c kind d others i :
  owner cfg (fst d) = Z.of_nat i ->
  call_of c = (i, kind, map (rw_dg cfg i) (d :: others)) ->
  (kind = 2 /\ code = A (bfault bsx i)
   \/ kind <> 2 /\
      (code, data) = enc_data (if negb (bfault bsx i =? 0) then Err (bfault bsx i)
                               else if dg_mem (rw_dg cfg i d) (bpresent bsx i)
                                    then Ok (i, last (map (rw_dg cfg i) (d :: others)) d) else Err NOT_FOUND)) ->
  mon_single cfg bsx (sx_Z code) data [enc_call c] kind d others = [].
Proof.
  intros Ho Hc Hr. unfold mon_single.
  rewrite Ho, (proj2 (Z.ltb_ge _ _) (Nat2Z.is_nonneg i)), Nat2Z.id. cbv zeta.
  rewrite sent_ok_enc by exact Hc. cbn [app].
  destruct Hr as [[-> ->]|[Hk Hr]]; [apply answer_put|apply answer_read; assumption].
Qed.

Section Single.
  Variable cfg : list centry.
  Variable bsx : list sx.
  Hypothesis Hlen : (length cfg <= length bsx)%nat.
  Notation bs := (mk_backends 0 bsx).

  Lemma bs_nth i : (i < length cfg)%nat -> nth_error bs i = Some (mk_backend i (nth i bsx (L []))).
  Proof. intros Hi. rewrite mk_backends_nth by lia. reflexivity. Qed.

  Lemma patch_rw p i (d c : digest) : patch_name p (fst d) = rewrite cfg i (fst d) -> fst c = fst d ->
    patch_digest p c = rw_dg cfg i c.
  Proof. intros H E. unfold patch_digest, rw_dg. rewrite E, H. reflexivity. Qed.

  Theorem mon_demux_get_silent op : kind4 (sx_Z (sx_nth op 0)) = 0%nat -> op_wf op = true ->
    mon_demux_op cfg bsx op (run_demux_op cfg bs op) = [].
  Proof.
    intros Hk Hwf. unfold op_wf in Hwf. rewrite Hk in Hwf. rewrite run_demux_op_eq, Hk.
    set (d := dec_dg (sx_nth op 1)) in *.
    destruct (gb_wf cfg (fst d) Hwf) as [[Hg Ho]|[i [key [p [Hg [Ho [Hi [Hp Hu]]]]]]]].
    - destruct (demux_err cfg bs d _ Hg) as [-> _].
      cbn [enc_data]. rewrite mon_demux_op_obs, Hk. apply mon_single_unknown. exact Ho.
    - destruct (demux_ok cfg bs d _ _ _ _ Hg (bs_nth i Hi)) as [-> _].
      rewrite b_get_mk, (patch_rw p i d d Hp eq_refl).
      destruct (enc_data _) as [c dd] eqn:Ed. rewrite mon_demux_op_obs, Hk.
      apply mon_single_known with (i := i); [exact Ho|reflexivity|].
      right. split; [discriminate|]. rewrite <- Ed. reflexivity.
  Qed.

  Theorem mon_demux_put_silent op : kind4 (sx_Z (sx_nth op 0)) = 2%nat -> op_wf op = true ->
    mon_demux_op cfg bsx op (run_demux_op cfg bs op) = [].
  Proof.
    intros Hk Hwf. unfold op_wf in Hwf. rewrite Hk in Hwf. rewrite run_demux_op_eq, Hk.
    set (d := dec_dg (sx_nth op 1)) in *.
    destruct (gb_wf cfg (fst d) Hwf) as [[Hg Ho]|[i [key [p [Hg [Ho [Hi [Hp Hu]]]]]]]].
    - destruct (demux_err cfg bs d _ Hg) as [_ [_ ->]].
      rewrite mon_demux_op_obs, Hk. apply mon_single_unknown. exact Ho.
    - destruct (demux_ok cfg bs d _ _ _ _ Hg (bs_nth i Hi)) as [_ [-> _]].
      rewrite b_put_mk, (patch_rw p i d d Hp eq_refl), mon_demux_op_obs, Hk.
      apply mon_single_known with (i := i); [exact Ho|reflexivity|].
      left. split; reflexivity.
  Qed.

  Theorem mon_demux_gfc_silent op : kind4 (sx_Z (sx_nth op 0)) = 1%nat -> op_wf op = true ->
    mon_demux_op cfg bsx op (run_demux_op cfg bs op) = [].
  Proof.
    intros Hk Hwf. unfold op_wf in Hwf. rewrite Hk in Hwf. rewrite run_demux_op_eq, Hk.
    set (d := dec_dg (sx_nth op 1)) in *. set (cd := dec_dg (sx_nth op 2)) in *.
    destruct (demux_gfc cfg bs d cd) as [r calls] eqn:Er. destruct (enc_data r) as [c dd] eqn:Ed.
    rewrite mon_demux_op_obs, Hk. fold d cd.
    destruct (str_eqb (fst d) (fst cd)) eqn:En; [|reflexivity].
    apply str_eqb_eq in En.
    destruct (gb_wf cfg (fst d) Hwf) as [[Hg Ho]|[i [key [p [Hg [Ho [Hi [Hp Hu]]]]]]]].
    - destruct (demux_err cfg bs d _ Hg) as [_ [E _]]. rewrite E in Er.
      injection Er as <- <-. injection Ed as <- <-. apply mon_single_unknown. exact Ho.
    - destruct (demux_ok cfg bs d _ _ _ _ Hg (bs_nth i Hi)) as [_ [_ E]].
      rewrite E, b_gfc_mk, (patch_rw p i d d Hp eq_refl), (patch_rw p i d cd Hp (eq_sym En)) in Er.
      injection Er as <- <-.
      apply mon_single_known with (i := i); [exact Ho|reflexivity|].
      right. split; [discriminate|]. rewrite <- Ed. reflexivity.
  Qed.
End Single.

Lemma NoDup_map_inj2 {T U V} (f : T -> U) (g : T -> V) l :
  NoDup (map f l) -> (forall x y, In x l -> In y l -> g x = g y -> f x = f y) -> NoDup (map g l).
Proof.
  induction l as [|a l IH]; cbn [map]; intros Hnd Hinj; [constructor|].
  inversion Hnd as [|? ? Hn Hr]; subst. constructor.
  - intros Hin. apply in_map_iff in Hin as [y [Hy Hyl]]. apply Hn. apply in_map_iff. exists y. split; [|exact Hyl].
    apply Hinj; [right; exact Hyl|left; reflexivity|exact Hy].
  - apply IH; [exact Hr|]. intros x y Hx Hy. apply Hinj; right; assumption.
Qed.
Lemma NoDup_app_l {T} (a b : list T) : NoDup (a ++ b) -> NoDup a.
Proof.
  induction a as [|x a IH]; intros H; [constructor|]. cbn in H. inversion H as [|? ? Hn Hr]; subst. constructor.
  - intros Hin. apply Hn. apply in_or_app. left. exact Hin.
  - apply IH. exact Hr.
Qed.
Lemma nodup_nat_NoDup l : NoDup l -> nodup_nat l = true.
Proof.
  induction 1 as [|x l Hn Hnd IH]; [reflexivity|]. cbn [nodup_nat]. rewrite IH, andb_true_r.
  apply negb_true_iff, existsb_false. intros y Hy. apply Nat.eqb_neq. intros ->. contradiction.
Qed.
Lemma in_snoc_middle {T} (p1 p2 : list T) x y : In y (p1 ++ [x]) -> In y (p1 ++ x :: p2).
Proof. rewrite !in_app_iff. intros [H|[<-|[]]]; [left; exact H|right; left; reflexivity]. Qed.
Lemma first_bad {T} (f : T -> Z) l : (exists x, In x l /\ f x <> 0) ->
  exists l1 x l2, l = l1 ++ x :: l2 /\ (forall y, In y l1 -> f y = 0) /\ f x <> 0.
Proof.
  induction l as [|a l IH]; intros [x [Hx Hf]]; [destruct Hx|].
  destruct (Z.eq_dec (f a) 0) as [Ea|Ea].
  - destruct IH as [l1 [y [l2 [-> [H1 H2]]]]].
    + destruct Hx as [<-|Hx]; [contradiction|eauto].
    + exists (a :: l1), y, l2. split; [reflexivity|]. split; [|exact H2]. intros z [<-|Hz]; auto.
  - exists [], a, l. split; [reflexivity|]. split; [intros ? []|exact Ea].
Qed.

Definition fm_miss (bsx : list sx) (pt : partition) : list digest :=
  filter (fun d => negb (dg_mem d (bpresent bsx (p_idx pt)))) (canon (p_digs pt)).
Definition fm_answer (bsx : list sx) (pt : partition) : list digest :=
  map (unpatch_digest (p_patcher pt)) (fm_miss bsx pt).

Lemma oracle_fm bsx pt : (p_idx pt < length bsx)%nat ->
  with_backend (mk_backends 0 bsx) (p_idx pt) (fun b => b_fm b (canon (p_digs pt))) Panic =
  if negb (bfault bsx (p_idx pt) =? 0) then Err (bfault bsx (p_idx pt)) else Ok (fm_miss bsx pt).
Proof. intros Hi. unfold with_backend. rewrite (mk_backends_nth bsx 0 _ Hi). apply b_fm_mk. Qed.

Lemma fm_calls_ok bsx parts acc calls :
  (forall pt, In pt parts -> (p_idx pt < length bsx)%nat /\ bfault bsx (p_idx pt) = 0) ->
  fm_calls (mk_backends 0 bsx) parts acc calls
  = (Ok (canon (acc ++ flat_map (fm_answer bsx) parts)), calls ++ map fm_call_of parts).
Proof.
  intros H. apply (fm_calls_eq _ (fm_miss bsx)).
  intros pt Hpt. destruct (H pt Hpt) as [Hi Hf]. rewrite (oracle_fm bsx pt Hi), Hf. reflexivity.
Qed.

Lemma fm_calls_fault bsx p1 pt p2 acc calls :
  (forall x, In x (p1 ++ pt :: p2) -> (p_idx x < length bsx)%nat) ->
  (forall x, In x p1 -> bfault bsx (p_idx x) = 0) -> bfault bsx (p_idx pt) <> 0 ->
  fm_calls (mk_backends 0 bsx) (p1 ++ pt :: p2) acc calls
  = (Err (bfault bsx (p_idx pt)), calls ++ map fm_call_of (p1 ++ [pt])).
Proof.
  intros Hi H0 Hf.
  rewrite (fm_calls_app _ (fm_miss bsx)).
  - cbn [fm_calls]. cbv zeta. rewrite (oracle_fm bsx pt) by (apply Hi, in_elt).
    apply Z.eqb_neq in Hf. rewrite Hf, map_app, app_assoc. reflexivity.
  - intros x Hx. rewrite (oracle_fm bsx x), (H0 x Hx) by (apply Hi, in_or_app; left; exact Hx). reflexivity.
Qed.

Lemma gb_own cfg d i key p : get_backend cfg (fst d) = Ok (i, key, p) -> own cfg d = i /\ (i < length cfg)%nat.
Proof.
  intros Hg. split; [|exact (gb_range _ _ _ _ _ Hg)].
  destruct (gb_cases cfg (fst d)) as [[E _]|[k [e [E [_ [Ho _]]]]]]; [congruence|].
  rewrite E in Hg. injection Hg as <- _ _. unfold own. rewrite Ho. apply Nat2Z.id.
Qed.

Lemma gb_wf_dg cfg d i key p : dg_wf d = true -> get_backend cfg (fst d) = Ok (i, key, p) ->
  patch_digest p d = rw_dg cfg i d /\ unpatch_digest p (rw_dg cfg i d) = d.
Proof.
  intros Hwf Hg. destruct (gb_wf cfg (fst d) Hwf) as [[E _]|[i' [key' [p' [E [_ [_ [Hp Hu]]]]]]]]; [congruence|].
  rewrite E in Hg. injection Hg as -> -> ->.
  assert (H : patch_digest p d = rw_dg cfg i d) by (apply (patch_rw cfg p i d d Hp eq_refl)).
  split; [exact H|]. rewrite <- H. unfold unpatch_digest, patch_digest. cbn [fst snd]. rewrite Hu.
  destruct d; reflexivity.
Qed.

Section Parts.
  Variable cfg : list centry.
  Variable ds : list digest.
  Variable cache : list (str * str).
  Variable parts : list partition.
  Hypothesis Hwf : forall d, In d ds -> dg_wf d = true.
  Hypothesis HI : Inv cfg ds cache parts.

  Lemma part_owner pt : In pt parts ->
    (p_idx pt < length cfg)%nat /\ exists d, In d ds /\ own cfg d = p_idx pt.
  Proof.
    intros Hp. destruct HI as [_ [C2 _]]. destruct (C2 pt Hp) as [d [Hd Hg]]. unfold tag in Hg.
    destruct (gb_own _ _ _ _ _ Hg) as [Ho Hi]. split; [exact Hi|]. exists d. auto.
  Qed.

  Lemma parts_nodup : NoDup (map p_idx parts).
  Proof.
    destruct HI as [_ [C2 [C3 _]]]. apply (NoDup_map_inj2 p_key p_idx parts C3).
    intros x y Hx Hy E. destruct (C2 x Hx) as [dx [_ Hgx]]. destruct (C2 y Hy) as [dy [_ Hgy]].
    unfold tag in *. exact (proj1 (proj2 (gb_det _ _ _ _ _ _ _ _ _ Hgx Hgy (or_introl E)))).
  Qed.

  Lemma part_digs pt y : In pt parts -> In y (p_digs pt) ->
    exists d, In d ds /\ own cfg d = p_idx pt /\ y = rw_dg cfg (p_idx pt) d.
  Proof.
    intros Hp Hy. apply (Inv_part_digs _ _ _ _ _ _ HI Hp) in Hy as [d [Hd [Hg ->]]]. unfold tag in Hg.
    destruct (gb_own _ _ _ _ _ Hg) as [Ho _].
    destruct (gb_wf_dg _ _ _ _ _ (Hwf d Hd) Hg) as [Hpd _].
    exists d. rewrite Hpd. auto.
  Qed.

  Lemma dig_part d : In d ds -> exists pt, In pt parts /\ p_idx pt = own cfg d.
  Proof.
    intros Hd. destruct (Inv_dig_part _ _ _ _ d HI Hd) as [pt [Hp Hg]]. unfold tag in Hg.
    destruct (gb_own _ _ _ _ _ Hg) as [Ho _]. exists pt. auto.
  Qed.

  (** clause 10 holds of the calls made for any duplicate-free selection of the partitions *)
  Lemma c10_ok q : (forall pt, In pt q -> In pt parts) -> NoDup (map p_idx q) ->
    c10 cfg ds (map enc_call (map fm_call_of q)) = true.
  Proof.
    intros Hq Hnd. unfold c10. apply andb_true_iff. split.
    - apply forallb_forall. intros c Hc. apply in_map_iff in Hc as [c' [<- Hc]].
      apply in_map_iff in Hc as [pt [<- Hp]].
      destruct (call_enc (fm_call_of pt)) as [E1 [E2 E3]]. rewrite E1, E2, E3.
      cbn [fm_call_of call_of fst snd]. rewrite Z.eqb_refl. cbn [andb].
      unfold subset. apply forallb_forall. intros y Hy. rewrite canon_In in Hy.
      destruct (part_digs pt y (Hq pt Hp) Hy) as [d [Hd [Ho ->]]].
      apply dg_mem_In, in_map, filter_In. split; [exact Hd|apply Nat.eqb_eq; exact Ho].
    - apply nodup_nat_NoDup. rewrite !map_map.
      erewrite map_ext; [exact Hnd|]. intros pt. cbv beta.
      destruct (call_enc (fm_call_of pt)) as [E1 _]. rewrite E1. reflexivity.
  Qed.

  Lemma owners_called :
    forallb (fun i => existsb (fun c => Nat.eqb (call_idx c) i) (map enc_call (map fm_call_of parts)))
            (map (own cfg) ds) = true.
  Proof.
    apply forallb_forall. intros i Hi. apply in_map_iff in Hi as [d [<- Hd]].
    destruct (dig_part d Hd) as [pt [Hp Hidx]].
    apply existsb_exists. exists (enc_call (fm_call_of pt)). split; [apply in_map, in_map; exact Hp|].
    destruct (call_enc (fm_call_of pt)) as [E1 _]. rewrite E1. cbn [fm_call_of call_of fst]. apply Nat.eqb_eq. exact Hidx.
  Qed.

  (** clause 9: the union of the honest answers, in the caller's names *)
  Lemma answers_spec bsx x :
    In x (canon (flat_map (fm_answer bsx) parts)) <->
    In x (filter (fun d => negb (dg_mem (rw_dg cfg (own cfg d) d) (bpresent bsx (own cfg d)))) ds).
  Proof.
    assert (Hun : forall d i key p, In d ds -> get_backend cfg (fst d) = Ok (i, key, p) ->
              unpatch_digest p (patch_digest p d) = d).
    { intros d i key p Hd Hg. destruct (gb_wf_dg _ _ _ _ _ (Hwf d Hd) Hg) as [-> H]. exact H. }
    rewrite canon_In, filter_In.
    etransitivity; [exact (fm_missing_spec cfg ds cache parts (fun i y => dg_mem y (bpresent bsx i)) HI Hun x)|].
    split; intros [Hd H]; (split; [exact Hd|]).
    - destruct H as [i [key [p [Hg Hpr]]]]. destruct (gb_own _ _ _ _ _ Hg) as [-> _].
      destruct (gb_wf_dg _ _ _ _ _ (Hwf x Hd) Hg) as [<- _]. rewrite Hpr. reflexivity.
    - destruct (Inv_dig_part _ _ _ _ x HI Hd) as [pt [_ Hg]]. unfold tag in Hg.
      destruct (gb_own _ _ _ _ _ Hg) as [Ho _]. destruct (gb_wf_dg _ _ _ _ _ (Hwf x Hd) Hg) as [Hp _].
      exists (p_idx pt), (p_key pt), (p_patcher pt). split; [exact Hg|]. rewrite Hp, <- Ho. apply negb_true_iff, H.
  Qed.
End Parts.

Lemma mon_fm_accept cfg bsx code data calls ds0 :
  existsb (fun d => owner cfg (fst d) <? 0) (canon ds0) = false ->
  c10 cfg (canon ds0) calls = true ->
  (if existsb (fun i => negb (bfault bsx i =? 0)) (map (own cfg) (canon ds0))
   then c8 bsx code (map (own cfg) (canon ds0)) = true
   else c9 cfg bsx code data calls (canon ds0) = true) ->
  mon_fm cfg bsx code data calls ds0 = [].
Proof.
  intros H6 H10 H. unfold mon_fm. cbv zeta. rewrite H6, H10.
  destruct (existsb (fun i => negb (bfault bsx i =? 0)) (map (own cfg) (canon ds0))); rewrite H; reflexivity.
Qed.

Section FindMissing.
  Variable cfg : list centry.
  Variable bsx : list sx.
  Hypothesis Hlen : (length cfg <= length bsx)%nat.
  Notation bs := (mk_backends 0 bsx).

  Lemma demux_fm_run ds0 :
    (existsb (fun d => owner cfg (fst d) <? 0) (canon ds0) = true
     /\ demux_fm cfg bs ds0 = (Err INVALID_ARGUMENT, []))
    \/ (existsb (fun d => owner cfg (fst d) <? 0) (canon ds0) = false /\
        exists cache parts, Inv cfg (canon ds0) cache parts /\
          ((existsb (fun i => negb (bfault bsx i =? 0)) (map (own cfg) (canon ds0)) = false /\
            demux_fm cfg bs ds0 = (Ok (canon (flat_map (fm_answer bsx) parts)), map fm_call_of parts))
           \/ (exists p1 x p2, parts = p1 ++ x :: p2 /\ bfault bsx (p_idx x) <> 0 /\
               In (p_idx x) (map (own cfg) (canon ds0)) /\
               demux_fm cfg bs ds0 = (Err (bfault bsx (p_idx x)), map fm_call_of (p1 ++ [x]))))).
  Proof.
    unfold demux_fm.
    destruct (fm_partition_spec cfg (canon ds0) [] [] [] (Inv_init cfg))
      as [[parts [cache [Hp [HI Hok]]]]|[Hp [d0 [Hd0 Hg0]]]]; rewrite Hp.
    2:{ left. split; [|reflexivity]. apply existsb_exists. exists d0. split; [exact Hd0|].
        destruct (gb_cases cfg (fst d0)) as [[_ E]|[k [e [E _]]]]; [rewrite E; reflexivity|congruence]. }
    right. cbn [app] in HI. split.
    { apply existsb_false. intros d Hd. destruct (Hok d Hd) as [t Ht].
      destruct (gb_cases cfg (fst d)) as [[E _]|[k [e [_ [_ [E _]]]]]]; [congruence|].
      rewrite E. apply Z.ltb_ge. lia. }
    exists cache, parts. split; [exact HI|].
    assert (Hrange : forall pt, In pt parts -> (p_idx pt < length bsx)%nat).
    { intros pt Hpt. destruct (part_owner cfg _ cache parts HI pt Hpt) as [Hi _]. lia. }
    destruct (existsb (fun i => negb (bfault bsx i =? 0)) (map (own cfg) (canon ds0))) eqn:Ef.
    - (* some owner fails: the model stops at the first failing partition *)
      right. apply existsb_exists in Ef as [i [Hi Hf]]. apply in_map_iff in Hi as [d [<- Hd]].
      destruct (dig_part cfg _ cache parts HI d Hd) as [pt [Hpt Hidx]].
      destruct (first_bad (fun pt => bfault bsx (p_idx pt)) parts) as [p1 [x [p2 [Eparts [H1 Hx]]]]].
      { exists pt. split; [exact Hpt|]. rewrite Hidx. apply negb_true_iff, Z.eqb_neq in Hf. exact Hf. }
      exists p1, x, p2. split; [exact Eparts|]. split; [exact Hx|]. split.
      + destruct (part_owner cfg _ cache parts HI x) as [_ [d' [Hd' <-]]]; [rewrite Eparts; apply in_elt|].
        apply in_map, Hd'.
      + rewrite Eparts. apply fm_calls_fault; [|exact H1|exact Hx].
        intros y Hy. apply Hrange. rewrite Eparts. exact Hy.
    - left. split; [reflexivity|]. apply fm_calls_ok. intros pt Hpt. split; [apply Hrange; exact Hpt|].
      destruct (part_owner cfg _ cache parts HI pt Hpt) as [_ [d [Hd Ho]]].
      pose proof (proj1 (existsb_false _ _) Ef (p_idx pt)) as H. cbv beta in H.
      apply negb_false_iff, Z.eqb_eq in H; [exact H|]. apply in_map_iff. exists d. auto.
  Qed.

  Theorem mon_demux_fm_silent op : kind4 (sx_Z (sx_nth op 0)) = 3%nat -> op_wf op = true ->
    mon_demux_op cfg bsx op (run_demux_op cfg bs op) = [].
  Proof.
    intros Hk Hwf. unfold op_wf in Hwf. rewrite Hk in Hwf. rewrite run_demux_op_eq, Hk.
    set (ds0 := dec_dgs (sx_nth op 1)) in *.
    assert (Hwf' : forall d, In d (canon ds0) -> dg_wf d = true).
    { intros d Hd. rewrite canon_In in Hd. rewrite forallb_forall in Hwf. apply Hwf. exact Hd. }
    destruct (demux_fm_run ds0)
      as [[H6 E]|[H6 [cache [parts [HI [[Ef E]|[p1 [x [p2 [Eparts [Hx [Hin E]]]]]]]]]]]];
      rewrite E; cbv beta iota; rewrite mon_demux_op_obs, Hk; fold ds0; cbn [sx_Z map].
    - unfold mon_fm. cbv zeta. rewrite H6. reflexivity.
    - apply mon_fm_accept; [exact H6| |].
      + apply (c10_ok cfg _ cache parts Hwf' HI); [auto|]. apply (parts_nodup cfg _ cache parts HI).
      + rewrite Ef. unfold c9. rewrite dec_enc_dgs.
        rewrite (canon_ext _ _ (answers_spec cfg _ cache parts Hwf' HI bsx)).
        rewrite dgs_eqb_refl, (owners_called cfg _ cache parts HI). reflexivity.
    - assert (Hsub : forall y, In y (p1 ++ [x]) -> In y parts).
      { intros y Hy. rewrite Eparts. apply in_snoc_middle, Hy. }
      apply mon_fm_accept; [exact H6| |].
      + apply (c10_ok cfg _ cache parts Hwf' HI); [exact Hsub|].
        pose proof (parts_nodup cfg _ cache parts HI) as Hnd.
        rewrite Eparts in Hnd. replace (p1 ++ x :: p2) with ((p1 ++ [x]) ++ p2) in Hnd by (rewrite <- app_assoc; reflexivity).
        rewrite map_app in Hnd. apply NoDup_app_l in Hnd. exact Hnd.
      + apply Z.eqb_neq in Hx.
        replace (existsb (fun i => negb (bfault bsx i =? 0)) (map (own cfg) (canon ds0))) with true.
        * unfold c8. apply existsb_exists. exists (p_idx x). split; [exact Hin|].
          rewrite Z.eqb_refl, Hx. reflexivity.
        * symmetry. apply existsb_exists. exists (p_idx x). split; [exact Hin|]. rewrite Hx. reflexivity.
  Qed.
End FindMissing.

Theorem mon_demux_op_silent cfg bsx op :
  (length cfg <= length bsx)%nat -> op_wf op = true ->
  mon_demux_op cfg bsx op (run_demux_op cfg (mk_backends 0 bsx) op) = [].
Proof.
  intros Hlen Hwf. destruct (kind4 (sx_Z (sx_nth op 0))) as [|[|[|k]]] eqn:Hk.
  - apply mon_demux_get_silent; assumption.
  - apply mon_demux_gfc_silent; assumption.
  - apply mon_demux_put_silent; assumption.
  - assert (k = 0%nat) as ->.
    { unfold kind4 in Hk. destruct (sx_Z (sx_nth op 0)) as [|p|p]; try congruence.
      destruct p as [p|p|]; try congruence; destruct p; congruence. }
    apply mon_demux_fm_silent; assumption.
Qed.

Lemma concat_zip_nil {X Y} (f : X -> Y -> list Z) (g : X -> Y) l :
  (forall x, In x l -> f x (g x) = []) -> concat (zip_with f l (map g l)) = [].
Proof.
  induction l as [|x l IH]; intros H; [reflexivity|]. cbn [map zip_with concat].
  rewrite (H x (or_introl eq_refl)), IH; [reflexivity|]. intros y Hy. apply H. right. exact Hy.
Qed.

Theorem mon19_silent_on_demux_model : forall inp,
  sx_Z (sx_nth inp 0) = 2 ->
  (length (dec_cfg (sx_nth inp 1)) <= length (sx_list (sx_nth inp 2)))%nat ->
  forallb op_wf (sx_list (sx_nth inp 3)) = true ->
  mon19 inp (run19 inp) = [].
Proof.
  intros inp Hk Hlen Hops. unfold mon19, run19. rewrite Hk. cbv zeta. cbn [sx_list].
  apply concat_zip_nil. intros op Hop. rewrite forallb_forall in Hops.
  apply mon_demux_op_silent; auto.
Qed.

(** a name with a trailing slash ("a/", components ["a"; ""]) is routed to the
    owner of "a", but the string patcher yields "b" where the specification says
    "b/": clause 7 for Get / Put / GetFromComposite, clauses 10 and 9 for
    FindMissing (whose answer comes back under the name "a", not "a/") *)
Example name_wf_needed :
  let a := 97%N in let b := 98%N in
  let cfg := [([a], [b])] in
  let bsx := [L [L []; A 0]] in
  let t op := (op_wf op, mon_demux_op cfg bsx op (run_demux_op cfg (mk_backends 0 bsx) op)) in
  t (L [A 0; enc_dg ([a; slash], 1%N)]) = (false, [7])
  /\ t (L [A 2; enc_dg ([a; slash], 1%N)]) = (false, [7])
  /\ t (L [A 1; enc_dg ([a; slash], 1%N); enc_dg ([a; slash], 2%N)]) = (false, [7])
  /\ t (L [A 3; enc_dgs [([a; slash], 1%N)]]) = (false, [10; 9])
  /\ run_demux_op cfg (mk_backends 0 bsx) (L [A 3; enc_dgs [([a; slash], 1%N)]])
     = enc_op3 (A 0) (enc_dgs [([a], 1%N)]) [CFm 0 [([b], 1%N)]]
  (* ... whereas a child under another name is outside the specification *)
  /\ t (L [A 1; enc_dg ([a; slash], 1%N); enc_dg ([a], 2%N)]) = (true, []).
Proof. vm_compute. repeat split; reflexivity. Qed.

(** an owner without a backend: the model panics (index out of range) *)
Example backend_needed :
  let a := 97%N in let b := 98%N in
  let cfg := [([a], [b])] in
  let t op := (op_wf op, mon_demux_op cfg [] op (run_demux_op cfg (mk_backends 0 []) op)) in
  t (L [A 0; enc_dg ([a], 1%N)]) = (true, [7; 8])
  /\ t (L [A 3; enc_dgs [([a], 1%N)]]) = (true, [9]).
Proof. vm_compute. repeat split; reflexivity. Qed.
