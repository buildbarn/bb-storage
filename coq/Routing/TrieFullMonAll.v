(** C19 — the monitor [mon19] is silent on the model's own output [run19], all
    four input kinds together.  Hypotheses, per kind:
    - kind 0 (trie history): the model does not panic (it panics only on a Remove
      of a name whose node does not exist — a nil dereference in the Go code);
    - kind 1 (patcher), kind 3 and any other kind (hierarchical decorator): none;
    - kind 2 (demultiplexer): every owner index has a backend description and the
      instance names of the operations' digests are well-formed ([op_wf]); both
      are needed ([name_wf_needed], [backend_needed] in TrieFullMonDemux.v). *)
From Coq Require Import List ZArith NArith Bool Arith Lia.
From BBS Require Import Common.Sx Routing.Names Routing.NamesProofs Routing.Trie Routing.Patcher Routing.PatcherProofs Routing.HierProofs Run.R19
  Routing.TrieFullMon Routing.TrieFullMonHier Routing.TrieFullMonDemux.
Import ListNotations.
Open Scope Z_scope.

Lemma mon_patcher_core old new r blob :
  name_ok old = true -> name_ok new = true -> name_ok r = true ->
  let p := new_patcher (join old) (join new) in
  let i := join (old ++ r) in
  let want := join (new ++ r) in
  str_eqb (patch_name p i) want && dg_eqb (patch_digest p (i, blob)) (want, blob) = true /\
  dg_eqb (unpatch_digest p (patch_digest p (i, blob))) (i, blob) = true.
Proof.
  intros Ho Hn Hr. cbv zeta.
  pose proof (unpatch_patch_digest old new r blob Ho Hn Hr) as Hu. cbv zeta in Hu. rewrite Hu.
  unfold patch_digest. cbn [fst snd]. rewrite (patch_name_spec old new r Ho Hn Hr).
  rewrite str_eqb_refl, !dg_eqb_refl. split; reflexivity.
Qed.

(** The patcher part of the monitor (clauses 4, 5) is silent on the model's own
    output, for every input of kind 1 (no hypothesis: the monitor itself
    restricts its clauses to well-formed names with the old prefix a
    component-wise prefix of the instance name). *)
Theorem mon_patcher_silent inp : mon_patcher inp (run_patcher inp) = [].
Proof.
  unfold mon_patcher, run_patcher. cbv zeta.
  remember (dec_str (sx_nth inp 1)) as ostr eqn:Eos.
  remember (dec_str (sx_nth inp 2)) as nstr eqn:Ens.
  remember (dec_str (sx_nth inp 3)) as i eqn:Eis.
  remember (sx_N (sx_nth inp 4)) as blob eqn:Eb.
  clear Eos Ens Eis Eb.
  remember (split ostr) as old eqn:Eold. remember (split nstr) as new eqn:Enew.
  remember (split i) as ni eqn:Eni.
  destruct (name_ok old && name_ok new && name_ok ni && is_prefix old ni) eqn:Hc; [|reflexivity].
  apply andb_true_iff in Hc as [Hc Hpre]. apply andb_true_iff in Hc as [Hc Hi].
  apply andb_true_iff in Hc as [Ho Hn].
  apply is_prefix_iff in Hpre as [r ->]. rewrite name_ok_app in Hi. apply andb_true_iff in Hi as [_ Hr].
  assert (Eo : ostr = join old) by (rewrite Eold; symmetry; apply join_split).
  assert (En : nstr = join new) by (rewrite Enew; symmetry; apply join_split).
  assert (Ei : i = join (old ++ r)) by (rewrite Eni; symmetry; apply join_split).
  unfold sx_nth. cbn [sx_list nth]. rewrite dec_enc_str, !dec_enc_dg, skipn_length_app.
  rewrite Eo, En, Ei.
  destruct (mon_patcher_core old new r blob Ho Hn Hr) as [H1 H2]. cbv zeta in H1, H2.
  rewrite H1, H2. reflexivity.
Qed.

Theorem mon19_silent_on_patcher_model : forall inp,
  sx_Z (sx_nth inp 0) = 1 -> mon19 inp (run19 inp) = [].
Proof.
  intros inp Hk. unfold mon19, run19. rewrite Hk. apply mon_patcher_silent.
Qed.

Definition model_input_ok (inp : sx) : Prop :=
  (sx_Z (sx_nth inp 0) = 0 -> run_trie (sx_list (sx_nth inp 1)) empty_trie <> None) /\
  (sx_Z (sx_nth inp 0) = 2 ->
     (length (dec_cfg (sx_nth inp 1)) <= length (sx_list (sx_nth inp 2)))%nat /\
     forallb op_wf (sx_list (sx_nth inp 3)) = true).

Theorem mon19_silent_on_model : forall inp, model_input_ok inp -> mon19 inp (run19 inp) = [].
Proof.
  intros inp [H0 H2].
  destruct (Z.eq_dec (sx_Z (sx_nth inp 0)) 0) as [E0|N0].
  { apply mon19_silent_on_trie_model; auto. }
  destruct (Z.eq_dec (sx_Z (sx_nth inp 0)) 1) as [E1|N1].
  { apply mon19_silent_on_patcher_model; auto. }
  destruct (Z.eq_dec (sx_Z (sx_nth inp 0)) 2) as [E2|N2].
  { destruct (H2 E2). apply mon19_silent_on_demux_model; auto. }
  apply mon19_silent_on_hier_model; assumption.
Qed.
