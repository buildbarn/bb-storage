(** C19 — [canon] (insertion sort with de-duplication of digest lists) is a
    canonical form: lists with the same elements have the same [canon].
    Used by the monitor-silent-on-model theorems (the monitor compares
    canonical digest sets). *)
From Coq Require Import List ZArith NArith Bool Arith Lia.
From BBS Require Import Routing.Names Routing.NamesProofs.
Import ListNotations.

(** [str_leb] on two non-empty strings and [dg_leb] are both one lexicographic
    step: compare the heads, and on equal heads let [r] (the comparison of the
    rest) decide. *)
Definition lexb (x y : N) (r : bool) : bool :=
  if N.ltb x y then true else if N.eqb x y then r else false.

Lemma lexb_true x y r : lexb x y r = true <-> (x < y)%N \/ (x = y /\ r = true).
Proof.
  unfold lexb. destruct (N.ltb_spec x y) as [H|H]; [split; [left; exact H|reflexivity]|].
  destruct (N.eqb_spec x y) as [E|E].
  - split; [right; split; assumption|]. intros [Hl|[_ Hr]]; [lia|exact Hr].
  - split; [discriminate|]. intros [Hl|[He _]]; [lia|contradiction].
Qed.

Lemma lexb_false x y r : lexb x y r = false <-> (y < x)%N \/ (x = y /\ r = false).
Proof.
  unfold lexb. destruct (N.ltb_spec x y) as [H|H].
  - split; [discriminate|]. intros [Hl|[He _]]; lia.
  - destruct (N.eqb_spec x y) as [E|E].
    + split; [right; split; assumption|]. intros [Hl|[_ Hr]]; [lia|exact Hr].
    + split; [left; lia|reflexivity].
Qed.

Lemma lexb_total x y r r' : (r = false -> r' = true) -> lexb x y r = false -> lexb y x r' = true.
Proof.
  intros Hr H. apply lexb_true. apply lexb_false in H as [H|[-> H]]; [left; exact H|right; auto].
Qed.

Lemma lexb_antisym x y r r' : lexb x y r = true -> lexb y x r' = true -> x = y /\ r = true /\ r' = true.
Proof.
  intros H1 H2. apply lexb_true in H1, H2.
  destruct H1 as [H1|[E H1]], H2 as [H2|[E2 H2]]; [lia..|auto].
Qed.

Lemma lexb_trans x y z r1 r2 r3 : (r1 = true -> r2 = true -> r3 = true) ->
  lexb x y r1 = true -> lexb y z r2 = true -> lexb x z r3 = true.
Proof.
  intros Hr H1 H2. apply lexb_true. apply lexb_true in H1, H2.
  destruct H1 as [H1|[-> H1]], H2 as [H2|[<- H2]].
  - left. exact (N.lt_trans _ _ _ H1 H2).
  - left. exact H1.
  - left. exact H2.
  - right. auto.
Qed.

Lemma str_leb_total a : forall b, str_leb a b = false -> str_leb b a = true.
Proof.
  induction a as [|x a IH]; intros [|y b]; cbn [str_leb]; try discriminate; auto.
  exact (lexb_total x y _ _ (IH b)).
Qed.

Lemma str_leb_antisym a : forall b, str_leb a b = true -> str_leb b a = true -> a = b.
Proof.
  induction a as [|x a IH]; intros [|y b]; cbn [str_leb]; try discriminate; auto.
  intros H1 H2. destruct (lexb_antisym x y _ _ H1 H2) as [-> [Ha Hb]].
  f_equal. exact (IH b Ha Hb).
Qed.

Lemma str_leb_trans a : forall b c, str_leb a b = true -> str_leb b c = true -> str_leb a c = true.
Proof.
  induction a as [|x a IH]; intros [|y b] [|z c]; cbn [str_leb]; try discriminate; auto.
  exact (lexb_trans x y z _ _ _ (IH b c)).
Qed.

Lemma dg_leb_total a b : dg_leb a b = false -> dg_leb b a = true.
Proof. exact (lexb_total _ _ _ _ (str_leb_total (fst a) (fst b))). Qed.

Lemma dg_leb_antisym a b : dg_leb a b = true -> dg_leb b a = true -> a = b.
Proof.
  intros H1 H2. destruct (lexb_antisym _ _ _ _ H1 H2) as [Hs [Ha Hb]].
  destruct a, b. cbn [fst snd] in *. f_equal; [exact (str_leb_antisym _ _ Ha Hb)|exact Hs].
Qed.

Lemma dg_leb_trans a b c : dg_leb a b = true -> dg_leb b c = true -> dg_leb a c = true.
Proof. exact (lexb_trans _ _ _ _ _ _ (str_leb_trans (fst a) (fst b) (fst c))). Qed.

Definition slt (a b : digest) : Prop := dg_leb a b = true /\ a <> b.

Fixpoint ssorted (l : list digest) : Prop :=
  match l with
  | [] => True
  | h :: t => (forall x, In x t -> slt h x) /\ ssorted t
  end.

Lemma slt_leb_trans d h x : dg_leb d h = true -> slt h x -> slt d x.
Proof.
  intros H1 [H2 Hne]. split; [eapply dg_leb_trans; eassumption|].
  intros ->. apply Hne. apply dg_leb_antisym; assumption.
Qed.

Lemma dg_insert_sorted d l : ssorted l -> ssorted (dg_insert d l).
Proof.
  induction l as [|h t IH]; cbn [dg_insert ssorted].
  - intros _. split; [intros x []|exact I].
  - intros [Hh Ht]. destruct (dg_eqb d h) eqn:E; [split; assumption|].
    assert (Hne : d <> h) by (intros ->; rewrite dg_eqb_refl in E; discriminate).
    destruct (dg_leb d h) eqn:El; cbn [ssorted].
    + split; [|split; assumption]. intros x [<-|Hx]; [split; assumption|].
      eapply slt_leb_trans; eauto.
    + split; [|apply IH; exact Ht]. intros x Hx. apply dg_insert_In in Hx as [->|Hx]; [|auto].
      split; [apply dg_leb_total; exact El|congruence].
Qed.

Lemma canon_sorted l : ssorted (canon l).
Proof. induction l as [|d l IH]; cbn; [exact I|apply dg_insert_sorted; exact IH]. Qed.

Lemma ssorted_unique l1 : forall l2, ssorted l1 -> ssorted l2 ->
  (forall x, In x l1 <-> In x l2) -> l1 = l2.
Proof.
  induction l1 as [|h1 t1 IH]; intros [|h2 t2] S1 S2 Hin.
  - reflexivity.
  - exfalso. apply (Hin h2). left; reflexivity.
  - exfalso. apply (Hin h1). left; reflexivity.
  - destruct S1 as [A1 S1], S2 as [A2 S2].
    assert (Hh : h1 = h2).
    { destruct (proj1 (Hin h1) (or_introl eq_refl)) as [E|I1]; [congruence|].
      destruct (proj2 (Hin h2) (or_introl eq_refl)) as [E|I2]; [congruence|].
      destruct (A2 _ I1) as [L21 N21], (A1 _ I2) as [L12 N12].
      exfalso. apply N12. apply dg_leb_antisym; assumption. }
    subst h2. f_equal. apply IH; try assumption. intros x. split; intros Hx.
    + destruct (proj1 (Hin x) (or_intror Hx)) as [E|I]; [|exact I].
      exfalso. destruct (A1 _ Hx) as [_ N]. congruence.
    + destruct (proj2 (Hin x) (or_intror Hx)) as [E|I]; [|exact I].
      exfalso. destruct (A2 _ Hx) as [_ N]. congruence.
Qed.

Theorem canon_ext l1 l2 : (forall x, In x l1 <-> In x l2) -> canon l1 = canon l2.
Proof.
  intros H. apply ssorted_unique; try apply canon_sorted.
  intros x. rewrite !canon_In. apply H.
Qed.

Theorem canon_idem l : canon (canon l) = canon l.
Proof. apply canon_ext. intros x. apply canon_In. Qed.

Lemma canon_of_sorted l : ssorted l -> canon l = l.
Proof.
  intros H. apply ssorted_unique; [apply canon_sorted|exact H|]. intros x. apply canon_In.
Qed.

Lemma canon_nodup l : NoDup (canon l).
Proof.
  assert (H : forall l, ssorted l -> NoDup l).
  { induction l0 as [|h t IH]; [constructor|]. intros [A S]. constructor; [|apply IH; exact S].
    intros Hin. destruct (A _ Hin) as [_ N]. congruence. }
  apply H, canon_sorted.
Qed.
