(** C14F: the monitor [mon14F] is silent on every observation the judge
    accepts as agreeing with the model, hence on the model's own output —
    for all histories of Put / Get / FindMissing over any instance names and
    digest functions, all backend answers and all failing partitions that
    satisfy [inp_wf14F]. *)
From Coq Require Import List ZArith Bool Lia.
From BBS Require Import Common.Sx Rpc.ByteStream Rpc.Batch Rpc.ClientServer
  Rpc.ClientServerProofs Rpc.FindMissingMulti Rpc.FindMissingMultiProofs Run.MonSilentSx Run.R14 Run.R14Proofs Run.R14F.
Import ListNotations.
Open Scope Z_scope.

Lemma q_ident_eqb_enc q : q_ident_eqb (enc_q q) q = true.
Proof.
  unfold q_ident_eqb, enc_q, enc_ident, sx_nth. cbn [sx_list nth sx_Z].
  rewrite !Z.eqb_refl. reflexivity.
Qed.

Definition qst_valid (blobs : list bytes) (st : qstore) : Prop :=
  forall q y, In (q, y) st -> valid (hash_of blobs) (q_dig q) y = true.

Lemma qst_get_some st q y : qst_get st q = Some y -> In (q, y) st.
Proof.
  unfold qst_get. destruct (find (fun e => qdig_eqb (fst e) q) st) as [[q' y']|] eqn:E; [|discriminate].
  intro H. inversion H. subst. apply find_some in E. destruct E as [Hin Hq]. cbn in Hq.
  apply qdig_eqb_eq in Hq. subst. exact Hin.
Qed.

Lemma qst_put_valid blobs st q y :
  qst_valid blobs st -> valid (hash_of blobs) (q_dig q) y = true -> qst_valid blobs (qst_put st q y).
Proof.
  intros Hst Hv q' y' [E|Hin].
  - inversion E. subst. exact Hv.
  - apply filter_In in Hin. destruct Hin as [Hin _]. eapply Hst; eauto.
Qed.

Lemma client_get_model_q blobs chunk st q :
  (0 < chunk)%nat -> d_size (q_dig q) <= backend_max -> qst_valid blobs st ->
  client_get (hash_of blobs) fdecompress fcompress false chunk [] []
             (fun d' => backend_get (hash_of blobs) (qst_get st (requalify (qkey q) d')) d') (q_dig q)
  = match qst_get st q with Some y => inl y | None => inr cNotFound end.
Proof.
  intros Hc Hm Hst.
  rewrite (client_get_validating _ _ _ fround_trip) with (held := qst_get st q) by
    (assumption || (rewrite requalify_eta; reflexivity)).
  unfold backend_get. destruct (qst_get st q) as [y|] eqn:Eg; [|reflexivity].
  rewrite (Hst q y (qst_get_some _ _ _ Eg)). reflexivity.
Qed.

Definition nz (c : Z) : bool := negb (c =? 0).

Lemma failing_codes_wf miss err qs :
  (forall q, In q qs -> 0 <= d_size (q_dig q)) ->
  failing_codes miss err (keys qs) qs = filter nz (map err (keys qs)).
Proof.
  intro Hsz. unfold failing_codes. fold nz. f_equal. apply map_ext_in. intros k Hk.
  rewrite (part_result_code_wf _ _ _ _ Hsz). apply keys_only_requested in Hk. destruct Hk as (q & Hq & Hk).
  assert (Hp : In q (partition_of k qs)) by (apply partition_of_in; auto).
  destruct (partition_of k qs); [contradiction|reflexivity].
Qed.

Lemma existsb_keys (f : pkey -> bool) qs : existsb (fun q => f (qkey q)) qs = existsb f (keys qs).
Proof.
  apply eq_true_iff_eq. split; intro H; apply existsb_exists in H; apply existsb_exists.
  - destruct H as (q & Hq & H). exists (qkey q). split; [apply keys_cover, Hq|exact H].
  - destruct H as (k & Hk & H). apply keys_only_requested in Hk. destruct Hk as (q & Hq & <-). eauto.
Qed.

Lemma existsb_filter_nil {T} (p : T -> bool) l : existsb p l = negb (nil_b (filter p l)).
Proof. induction l as [|a l IH]; [reflexivity|]. cbn. destruct (p a); [reflexivity|exact IH]. Qed.

Lemma failing_exists err qs :
  existsb (fun q => nz (err (qkey q))) qs = negb (nil_b (filter nz (map err (keys qs)))).
Proof.
  rewrite (existsb_keys (fun k => nz (err k))), <- (existsb_map nz err). apply existsb_filter_nil.
Qed.

Definition qop_wf (blobs : list bytes) (op : sx) : Prop :=
  let k := sx_Z (sx_nth op 0) in
  if k =? 0 then blen (blob blobs (sx_Z (sx_nth op 3))) <= backend_max
  else if k =? 1 then sx_Z (sx_nth op 4) <= backend_max
  else Forall (fun e => 0 <= sx_Z (sx_nth e 3)) (sx_list (sx_nth op 1)).

Lemma silent_qs_ops blobs chunk : (0 < chunk)%nat ->
  forall ops st rs stf ms,
    qst_valid blobs st -> Forall (qop_wf blobs) ops ->
    qs_ops blobs chunk st ops = (stf, ms) ->
    qs_res_all ops rs ms = true ->
    mon_qs_ops blobs st ops rs = ([], stf).
Proof.
  intros Hc. induction ops as [|op ops IH]; intros st rs stf ms Hst Hwf Hrun Hag.
  - cbn in Hrun. inversion Hrun. subst. destruct rs; [reflexivity|discriminate].
  - cbn [qs_ops] in Hrun.
    destruct (qs_op blobs chunk st op) as [st1 m] eqn:Eop.
    destruct (qs_ops blobs chunk st1 ops) as [st2 ms'] eqn:Eops.
    inversion Hrun. subst stf ms. clear Hrun.
    destruct rs as [|r rs]; [discriminate|]. cbn [qs_res_all] in Hag.
    apply andb_prop in Hag. destruct Hag as [Hr Hag].
    inversion Hwf as [|? ? Hop Hwf']. subst.
    cbn [mon_qs_ops]. unfold qs_op in Eop. unfold qs_res_eqb in Hr. unfold qop_wf in Hop. cbv zeta in Hop.
    destruct (sx_Z (sx_nth op 0) =? 0) eqn:E0.
    + (* Put *)
      apply sx_eqb_eq in Hr. subst r.
      destruct (client_put_model blobs false chunk (sx_Z (sx_nth op 3)) (sx_Z (sx_nth op 4)) Hc Hop) as [Hstored Hcode].
      cbv zeta. unfold dec_q, dec_dig in *. cbn [q_dig] in *.
      rewrite Hstored in Eop. inversion Eop. subst st1 m.
      rewrite sx_nth_L. cbn [nth sx_Z]. rewrite Hcode.
      destruct (valid (hash_of blobs) _ (blob blobs (sx_Z (sx_nth op 3)))) eqn:Hv.
      * eapply IH; eauto. apply qst_put_valid; assumption.
      * eapply IH; eauto.
    + destruct (sx_Z (sx_nth op 0) =? 1) eqn:E1.
      * (* Get *)
        apply sx_eqb_eq in Hr. subst r. cbv zeta in Eop. cbv zeta.
        rewrite (client_get_model_q blobs chunk st (dec_q blobs op 1) Hc Hop Hst) in Eop.
        destruct (qst_get st (dec_q blobs op 1)) as [y|] eqn:Eg;
          inversion Eop; subst st1 m; rewrite !sx_nth_L; cbn [nth sx_Z].
        -- rewrite sx_Zs_of_Zs, bytes_eqb_refl. cbn [Z.eqb andb]. eapply IH; eauto.
        -- cbn. eapply IH; eauto.
      * (* FindMissing *)
        cbv zeta in Eop. cbv zeta.
        set (es := map (dec_fme blobs) (sx_list (sx_nth op 1))) in *.
        set (errs := map dec_err (sx_list (sx_nth op 2))) in *.
        set (qs := map fst es) in *.
        set (miss := fm_missing_q st es) in *.
        assert (Hsz : forall q, In q qs -> 0 <= d_size (q_dig q)).
        { intros q Hq. unfold qs, es in Hq. rewrite map_map in Hq. apply in_map_iff in Hq.
          destruct Hq as (e & <- & He). rewrite Forall_forall in Hop. exact (Hop e He). }
        destruct (client_find_missing miss (err_of errs) (keys qs) qs) as [c msq] eqn:Ecf.
        inversion Eop. subst st1 m. clear Eop.
        rewrite !sx_nth_L in Hr. cbn [nth sx_list] in Hr. rewrite sx_Zs_of_Zs in Hr.
        pose proof (client_find_missing_code miss (err_of errs) (keys qs) qs) as Hcode.
        rewrite Ecf in Hcode. cbn [fst] in Hcode.
        rewrite (failing_codes_wf miss (err_of errs) qs Hsz) in Hr, Hcode.
        pose proof (failing_exists (err_of errs) qs) as Hfe. unfold nz at 1 in Hfe. rewrite Hfe.
        rewrite (IH st rs st2 ms' Hst Hwf' Eops Hag).
        destruct (filter nz (map (err_of errs) (keys qs))) as [|c0 alts] eqn:Ealts; cbn [nil_b negb] in *.
        -- (* every partition answers *)
           cbn [hd] in Hcode. subst c.
           apply andb_prop in Hr. destruct Hr as [Hr _]. apply andb_prop in Hr. destruct Hr as [Hr _].
           apply andb_prop in Hr. destruct Hr as [Hr _]. apply andb_prop in Hr. destruct Hr as [Hr0 Hr1].
           rewrite Hr0. cbn [andb].
           assert (Hex : forall q, In q msq <-> In q qs /\ miss q = true).
           { apply (client_find_missing_exact miss (err_of errs) (keys qs) qs msq); [apply keys_cover|exact Ecf]. }
           destruct (fm_demands enc_q q_ident_eqb qs miss _ msq q_ident_eqb_enc Hex Hr1) as [G1 G2].
           rewrite G1, G2. reflexivity.
        -- (* some partition fails *)
           apply andb_prop in Hr. destruct Hr as [Hr _]. apply andb_prop in Hr. destruct Hr as [Hr0 Hr1].
           apply existsb_exists in Hr0. destruct Hr0 as (c' & Hin & E). apply Z.eqb_eq in E. subst c'.
           rewrite <- Ealts in Hin. apply filter_In in Hin. destruct Hin as [_ Hnz].
           apply negb_true_iff in Hnz. rewrite Hnz, Hr1. reflexivity.
Qed.

Definition inp_wf14F (inp : sx) : Prop :=
  (0 < sx_nat (sx_nth inp 1))%nat
  /\ Forall (qop_wf (dec_blobs (sx_nth inp 0))) (sx_list (sx_nth inp 2)).

Theorem mon14F_silent_on_agreeing : forall inp obs,
  inp_wf14F inp -> agree14F inp (run14F inp) obs = true -> mon14F inp obs = [].
Proof.
  intros inp obs [Hc Hops]. unfold agree14F, run14F, mon14F.
  destruct (qs_ops (dec_blobs (sx_nth inp 0)) (sx_nat (sx_nth inp 1)) [] (sx_list (sx_nth inp 2))) as [stf ms] eqn:Erun.
  rewrite !sx_nth_L. cbn [nth sx_list].
  intro H. apply andb_prop in H. destruct H as [H Hset]. apply andb_prop in H. destruct H as [Hall _].
  rewrite (silent_qs_ops _ _ Hc _ _ _ _ _ (fun q y (F : In (q, y) []) => match F with end) Hops Erun Hall).
  cbn [existsb app]. rewrite Hset. reflexivity.
Qed.

Lemma call_eqb_refl x : call_eqb x x = true.
Proof. apply sx_seteq_refl. Qed.

Lemma calls_sub_refl l : calls_sub l l = true.
Proof.
  unfold calls_sub. apply forallb_forall. intros x Hx. apply existsb_exists. exists x.
  split; [exact Hx|apply call_eqb_refl].
Qed.

Lemma qs_ops_res_refl blobs chunk : forall ops st stf ms,
  qs_ops blobs chunk st ops = (stf, ms) -> qs_res_all ops ms ms = true.
Proof.
  induction ops as [|op ops IH]; intros st stf ms H; cbn [qs_ops] in H.
  - inversion H. reflexivity.
  - destruct (qs_op blobs chunk st op) as [st1 m] eqn:Eop.
    destruct (qs_ops blobs chunk st1 ops) as [st2 ms'] eqn:E.
    inversion H. subst. cbn [qs_res_all]. rewrite (IH _ _ _ E), andb_true_r.
    unfold qs_res_eqb. destruct (sx_Z (sx_nth op 0) =? 0) eqn:E0; [apply sx_eqb_refl|].
    destruct (sx_Z (sx_nth op 0) =? 1) eqn:E1; [apply sx_eqb_refl|].
    unfold qs_op in Eop. rewrite E0, E1 in Eop. cbv zeta in Eop.
    set (es := map (dec_fme blobs) (sx_list (sx_nth op 1))) in *.
    set (errs := map dec_err (sx_list (sx_nth op 2))) in *.
    set (qs := map fst es) in *.
    set (miss := fm_missing_q st es) in *.
    destruct (client_find_missing miss (err_of errs) (keys qs) qs) as [c msq] eqn:Ecf.
    inversion Eop. subst st1 m. clear Eop.
    rewrite !sx_nth_L. cbn [nth sx_list sx_Z]. rewrite sx_Zs_of_Zs.
    pose proof (client_find_missing_code miss (err_of errs) (keys qs) qs) as Hcode.
    rewrite Ecf in Hcode. cbn [fst] in Hcode.
    destruct (failing_codes miss (err_of errs) (keys qs) qs) as [|c0 alts] eqn:Ealts; cbn [nil_b hd] in *.
    + subst c. rewrite sx_seteq_refl, Nat.eqb_refl, calls_sub_refl. reflexivity.
    + subst c0. cbn [existsb]. rewrite Z.eqb_refl. cbn [orb andb].
      assert (Hc : c <> 0).
      { assert (Hin : In c (failing_codes miss (err_of errs) (keys qs) qs)) by (rewrite Ealts; left; reflexivity).
        unfold failing_codes in Hin. apply filter_In in Hin. destruct Hin as [_ Hn].
        apply negb_true_iff in Hn. apply Z.eqb_neq in Hn. exact Hn. }
      destruct (client_find_missing_failure _ _ _ _ _ _ Ecf Hc) as [-> _].
      cbn [map nil_b andb]. apply calls_sub_refl.
Qed.

Theorem agree14F_model : forall inp, agree14F inp (run14F inp) (run14F inp) = true.
Proof.
  intro inp. unfold agree14F, run14F.
  destruct (qs_ops (dec_blobs (sx_nth inp 0)) (sx_nat (sx_nth inp 1)) [] (sx_list (sx_nth inp 2))) as [stf ms] eqn:E.
  rewrite !sx_nth_L. cbn [nth sx_list].
  rewrite (qs_ops_res_refl _ _ _ _ _ _ E), Nat.eqb_refl, sx_seteq_refl. reflexivity.
Qed.

Theorem mon14F_silent_on_model : forall inp, inp_wf14F inp -> mon14F inp (run14F inp) = [].
Proof. intros inp Hwf. apply mon14F_silent_on_agreeing; [exact Hwf|apply agree14F_model]. Qed.
