(** C07, "the monitor is silent on the model" — part 7: the details of Put,
    finalizer and PushBack operations that the coverage clauses need (which
    upload slot, which token, which result), and that no other operation
    touches the executor's counters. *)
From Coq Require Import List NArith ZArith Bool Arith Lia.
From BBS Require Import Common.Sx Persist.PBL Persist.PBLProofs Persist.Syncer Persist.SyncerProofs
  Persist.LiveActs Persist.LiveCover Persist.LiveRelease Run.R07 Run.R07MonBase Run.R07MonOps.
Import ListNotations.
Local Open Scope nat_scope.

Definition cnt_same (x x1 : xst) : Prop := x_blk x1 = x_blk x /\ x_nalloc x1 = x_nalloc x.

Definition det1 (cfg : config) (op : sx) (x x1 : xst) (res : sx) : Prop :=
  (x1 = x /\ tag res = 0%Z) \/
  exists idx,
    let p := s_pbl (x_sys x) in
    idx < length (blocks p) /\
    step cfg (x_sys x) (EPutStart idx (sx_Z (sx_nth op 2))) = Some (Ok (x_sys x1)) /\
    x_blk x1 = x_blk x ++ [if sx_bool (sx_nth op 4) then None else Some (sx_Z (sx_nth op 3))] /\
    x_nalloc x1 = x_nalloc x /\
    res = L [A 1; A (if closedForWriting p then (-1)%Z else
                     match nth_error (blocks p) idx with Some b => fst (b_loc b) | None => (-1)%Z end)].

Definition det2 (cfg : config) (op : sx) (x x1 : xst) (res : sx) : Prop :=
  (x1 = x /\ tag res <> 0%Z) \/
  exists tok size blk seed p' fr,
    let k := sx_nat (sx_nth op 1) in
    let p := s_pbl (x_sys x) in
    nth_error (s_uploads (x_sys x)) k = Some (Some (tok, size)) /\ nth_error (x_blk x) k = Some blk /\
    put_finalize tok blk size seed p = Ok (p', fr) /\
    step cfg (x_sys x) (EFinalize k blk seed) = Some (Ok (x_sys x1)) /\ cnt_same x x1 /\
    match fr with
    | FinOk off => exists e bfl sd,
        index_to_ref (match tok with PutAt abs => abs - totalReleased p' | PutClosed => 0 end) p' = Ok ((e, bfl), sd)
        /\ res = L [A 0; A off; of_N e; of_N bfl; of_N sd]
    | _ => tag res <> 0%Z
    end.

Definition det4 (cfg : config) (op : sx) (x x1 : xst) (res : sx) : Prop :=
  (x1 = x /\ tag res <> 0%Z) \/
  (let l : loc := ((10000 + 100 * Z.of_nat (x_nalloc x))%Z, 100%Z) in
   closedForWriting (s_pbl (x_sys x)) = false /\
   step cfg (x_sys x) (EPushBack (Some l)) = Some (Ok (x_sys x1)) /\
   x_blk x1 = x_blk x /\ x_nalloc x1 = S (x_nalloc x) /\ res = L [A 0; A (fst l)]).

Lemma d_lift_env_cnt cfg x e r no x1 res : d_lift x (env_step cfg x e) r no = Ok (x1, res) -> cnt_same x x1.
Proof.
  unfold d_lift. destruct (env_step cfg x e) as [[x'|]|] eqn:E; intros H; inversion H; subst.
  - destruct (env_step_ok _ _ _ _ E) as [_ [[H1 [_ H3]] _]]. split; auto.
  - split; reflexivity.
Qed.

Lemma d_lift_thr_cnt cfg x t a r no x1 res : d_lift x (tstep cfg t a x) r no = Ok (x1, res) -> cnt_same x x1.
Proof.
  unfold d_lift. destruct (tstep cfg t a x) as [[x'|]|] eqn:E; intros H; inversion H; subst.
  - destruct (tstep_ok _ _ _ _ _ E) as [_ [[H1 [_ H3]] _]]. split; auto.
  - split; reflexivity.
Qed.

Lemma d_noop_cnt x (r : sx) x1 res : Ok (x, r) = Ok (x1, res) -> cnt_same x x1.
Proof. intros H. injection H as <- _. split; reflexivity. Qed.

Lemma op1_det cfg op x x1 res : op1 cfg op x = Ok (x1, res) -> det1 cfg op x x1 res.
Proof.
  unfold op1, det1, d_noop. cbv zeta.
  destruct (Nat.ltb_spec (sx_nat (sx_nth op 1)) (length (blocks (s_pbl (x_sys x))))) as [Hlt|Hge].
  - destruct (env_step cfg x _) as [[x'|]|] eqn:Ee; [|discriminate|].
    + destruct (env_step_ok _ _ _ _ Ee) as [Hs [[H1 [_ H3]] _]].
      intros H. injection H as <- <-. right. eexists. cbn [x_sys x_blk x_nalloc].
      splits; [|exact Hs|rewrite H3; reflexivity|exact H1|reflexivity]. lia.
    + intros H. injection H as <- <-. left. auto.
  - intros H. injection H as <- <-. left. auto.
Qed.

Lemma op2_det cfg op x x1 res : op2 cfg op x = Ok (x1, res) -> det2 cfg op x x1 res.
Proof.
  unfold op2, det2, d_noop. cbv zeta.
  assert (Hno : Ok (x, L [A (-1)%Z]) = Ok (x1, res) -> x1 = x /\ tag res <> 0%Z).
  { intros H. injection H as <- <-. split; [reflexivity|discriminate]. }
  destruct (nth_error (s_uploads (x_sys x)) _) as [[[tok size]|]|] eqn:Eu; auto.
  destruct (nth_error (x_blk x) _) as [blk|] eqn:Eb; auto.
  destruct (put_finalize _ _ _ _ _) as [[p' fr]|] eqn:Ef; [|discriminate].
  destruct (env_step cfg x _) as [[x'|]|] eqn:Ee; [|discriminate|auto].
  destruct (env_step_ok _ _ _ _ Ee) as [Hs [[H1 [_ H3]] _]].
  intros H. right. exists tok, size, blk, (1000 + x_nseed x)%N, p', fr.
  assert (Hx : forall ns, x1 = mkX (x_sys x') (x_nalloc x') ns (x_blk x') (x_nwr x') (x_nsy x') ->
               step cfg (x_sys x) (EFinalize (sx_nat (sx_nth op 1)) blk (1000 + x_nseed x)%N) = Some (Ok (x_sys x1))
               /\ cnt_same x x1).
  { intros ns ->. split; [exact Hs|split; assumption]. }
  destruct fr as [off| | |].
  1: { destruct (index_to_ref _ p') as [[[e bfl] sd]|] eqn:Er; [|discriminate].
       injection H as H <-. destruct (Hx _ (eq_sym H)). splits; auto. eexists _, _, _. split; reflexivity. }
  all: injection H as H <-; destruct (Hx _ (eq_sym H)); splits; auto; discriminate.
Qed.

Lemma push_back_result al p :
  snd (push_back al p) =
  if closedForWriting p then PushClosed else match al with Some _ => PushOk | None => PushAllocFailed end.
Proof. unfold push_back. destruct (closedForWriting p); [|destruct al]; reflexivity. Qed.

Lemma ok_pair_inj {A B : Type} (a a' : A) (b b' : B) : Ok (a, b) = Ok (a', b') -> a = a' /\ b = b'.
Proof. intros H. injection H as <- <-. auto. Qed.

Lemma op4_det cfg op x x1 res : op4 cfg op x = Ok (x1, res) -> det4 cfg op x x1 res.
Proof.
  (* no [cbn], [injection] or [inversion] here: they would unfold the [Z.add] of the allocated location *)
  unfold op4, det4. cbv zeta. rewrite push_back_result.
  destruct (closedForWriting (s_pbl (x_sys x))); cbv iota.
  - intros H. destruct (ok_pair_inj _ _ _ _ H) as [<- <-]. left. split; [reflexivity|discriminate].
  - destruct (sx_bool (sx_nth op 1)); cbv iota.
    + destruct (env_step cfg x _) as [[x'|]|] eqn:Ee; try discriminate.
      destruct (env_step_ok _ _ _ _ Ee) as [Hs [[H1 [_ H3]] _]].
      intros H. destruct (ok_pair_inj _ _ _ _ H) as [<- <-]. right.
      unfold x_sys at 2, x_blk at 1, x_nalloc at 1. rewrite H1. splits; auto.
    + intros H. destruct (ok_pair_inj _ _ _ _ H) as [<- <-]. left. split; [reflexivity|discriminate].
Qed.

Lemma do_op_det1 cfg op x x1 res : tag op = 1%Z -> do_op cfg op x = Ok (x1, res) -> det1 cfg op x x1 res.
Proof. intros Hc. rewrite do_op_at, Hc. apply op1_det. Qed.

Lemma do_op_det2 cfg op x x1 res : tag op = 2%Z -> do_op cfg op x = Ok (x1, res) -> det2 cfg op x x1 res.
Proof. intros Hc. rewrite do_op_at, Hc. apply op2_det. Qed.

Lemma do_op_det4 cfg op x x1 res : tag op = 4%Z -> do_op cfg op x = Ok (x1, res) -> det4 cfg op x x1 res.
Proof. intros Hc. rewrite do_op_at, Hc. apply op4_det. Qed.

Lemma do_op_cnt cfg op x x1 res : tag op <> 1%Z -> tag op <> 2%Z -> tag op <> 4%Z ->
  do_op cfg op x = Ok (x1, res) -> cnt_same x x1.
Proof.
  intros N1 N2 N4. apply do_op_ind; intros Hc; try contradiction.
  - apply d_lift_env_cnt.
  - unfold op5. cbv zeta. destruct (is_syncing (x_sys x)); [apply d_lift_thr_cnt|apply d_noop_cnt].
  - unfold op6. cbv zeta. destruct (writer (x_sys x)); [apply d_lift_thr_cnt|apply d_noop_cnt].
  - apply d_lift_env_cnt.
  - unfold op8. cbv zeta. destruct (Z.eqb _ 0).
    + destruct (s_r (x_sys x)) as [| |[| | | |dl]]; try apply d_noop_cnt.
      destruct (due dl (x_sys x)); [apply d_lift_thr_cnt|apply d_noop_cnt].
    + destruct (s_p (x_sys x)) as [| | |dl| | | |? ? dl|? [| | | |dl]|]; try apply d_noop_cnt;
        (destruct (due dl (x_sys x)); [apply d_lift_thr_cnt|apply d_noop_cnt]).
  - apply d_lift_env_cnt.
  - unfold op10. destruct (ref_to_index _ _ _) as [[[i sd]|]|]; [apply d_noop_cnt|apply d_noop_cnt|discriminate].
  - unfold op11. destruct (index_to_ref _ _) as [[[e bfl] sd]|]; apply d_noop_cnt.
  - apply d_noop_cnt.
Qed.
