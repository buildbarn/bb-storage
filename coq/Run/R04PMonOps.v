(** C04P, "the monitor is silent on the model" — part 3: what [do_op_a] does to
    the block list's release bookkeeping, to the write in flight and to the
    allocator's accounting. *)
From Coq Require Import List NArith ZArith Bool Arith Lia.
From BBS Require Import Common.Sx Persist.PBL Persist.PBLProofs Persist.Syncer Persist.SyncerProofs
  Persist.LiveActs Persist.LiveCover Persist.LiveRelease Run.R07 Run.R04P Run.R07MonBase Run.R07MonOps
  Run.R07MonC123 Run.R07MonCov2 Run.R07MonCov3 Run.R04PMonTraj.
Import ListNotations.
Local Open Scope nat_scope.

Definition opa3 (cfg : config) (a : ast) : outcome (ast * sx * list sx) :=
  let x := a_x a in
  match blocks (s_pbl (x_sys x)), a_ids a with
  | b :: _, id :: ids' =>
      match env_step cfg x EPopFront with
      | Some (Ok x') =>
          Ok (mkAst x' (a_free a) ids' (a_popped a ++ [(id, fst (b_loc b))]) (a_next a),
              L [A 1%Z], [L [A 3%Z; of_nat id; A (fst (b_loc b))]])
      | Some Panic => Panic
      | None => Ok (a, L [A 0%Z], [])
      end
  | _, _ => Ok (a, L [A 0%Z], [])
  end.

Definition opa4 (cfg : config) (op : sx) (a : ast) : outcome (ast * sx * list sx) :=
  let x := a_x a in
  let p := s_pbl (x_sys x) in
  let ok := sx_bool (sx_nth op 1) in
  let alloc := if ok then match a_free a with f :: _ => Some (f, 100%Z) | [] => None end else None in
  match snd (push_back alloc p), alloc with
  | PushOk, Some l =>
      match env_step cfg x (EPushBack alloc) with
      | Some (Ok x') =>
          Ok (mkAst (x_set_nalloc x' (S (x_nalloc x'))) (tl (a_free a)) (a_ids a ++ [a_next a])
                    (a_popped a) (S (a_next a)),
              L [A 0%Z; A (fst l)], [L [A 1%Z; of_nat (a_next a); A (fst l)]])
      | _ => Panic
      end
  | PushOk, None => Panic
  | PushClosed, _ => Ok (a, L [A 14%Z], [])
  | PushAllocFailed, _ => Ok (a, L [A 14%Z], [])
  end.

Definition opaX (cfg : config) (op : sx) (a : ast) : outcome (ast * sx * list sx) :=
  let x := a_x a in
  let ev := if Z.eqb (tag op) 6 then
              match writer (x_sys x) with
              | Some _ => [L [A 5%Z; of_nat (x_nwr x); of_bool (sx_bool (sx_nth op 1))]]
              | None => []
              end
            else [] in
  match do_op cfg op x with
  | Panic => Panic
  | Ok (x', res) => Ok (mkAst x' (a_free a) (a_ids a) (a_popped a) (a_next a), res, ev)
  end.

Lemma do_op_a_at cfg op a :
  do_op_a cfg op a = if Z.eqb (tag op) 3 then opa3 cfg a else if Z.eqb (tag op) 4 then opa4 cfg op a else opaX cfg op a.
Proof.
  unfold do_op_a, opaX, tag. destruct (sx_Z (sx_nth op 0)) as [|p|p]; try reflexivity.
  destruct p as [[p|p|]|[p|[p|p|]|]|]; reflexivity.
Qed.

Lemma do_op_a_cases cfg op a :
  (tag op = 3%Z /\ do_op_a cfg op a = opa3 cfg a) \/
  (tag op = 4%Z /\ do_op_a cfg op a = opa4 cfg op a) \/
  (tag op <> 3%Z /\ tag op <> 4%Z /\ do_op_a cfg op a = opaX cfg op a).
Proof.
  rewrite do_op_a_at. destruct (Z.eqb_spec (tag op) 3) as [E3|N3]; [left; auto|].
  destruct (Z.eqb_spec (tag op) 4) as [E4|N4]; [right; left; auto|right; right; auto].
Qed.

Definition cw (o : option wpc) : option (pstate + unit) :=
  match o with
  | Some (WWriting st) => Some (inl st)
  | Some WWritten => Some (inr tt)
  | _ => None
  end.
Definition wp_r (s : sys) : option wpc := match s_r s with RW w => Some w | _ => None end.
Definition wp_p (s : sys) : option wpc := match s_p s with PW _ w => Some w | _ => None end.

Lemma writing_state_cw s :
  writing_state s = match cw (wp_r s), cw (wp_p s) with
                    | Some (inl st), _ => Some st
                    | _, Some (inl st) => Some st
                    | _, _ => None
                    end.
Proof.
  unfold cw, wp_r, wp_p, writing_state.
  destruct (s_r s) as [| |[]]; try reflexivity; destruct (s_p s) as [| | | | | | | |? []|]; reflexivity.
Qed.

Lemma wwritten_cw s :
  wwritten s = match cw (wp_r s), cw (wp_p s) with
               | Some (inr _), _ => true
               | _, Some (inr _) => true
               | _, _ => false
               end.
Proof.
  unfold cw, wp_r, wp_p, wwritten.
  destruct (s_r s) as [| |[]]; try reflexivity; destruct (s_p s) as [| | | | | | | |? []|]; reflexivity.
Qed.

Lemma cw_same s s' : cw (wp_r s') = cw (wp_r s) -> cw (wp_p s') = cw (wp_p s) ->
  writing_state s' = writing_state s /\ wwritten s' = wwritten s.
Proof.
  intros H1 H2. rewrite !writing_state_cw, !wwritten_cw, H1, H2. split; reflexivity.
Qed.

Lemma afin_offs tok blk size seed p p' : apply_act (AFin tok blk size seed) p = Ok p' -> offs p' = offs p.
Proof.
  cbn [apply_act]. destruct (put_finalize tok blk size seed p) as [[p1 fr]|] eqn:E; [|discriminate].
  cbn. intros H; inversion H; subst. eapply fin_offs; eauto.
Qed.

Section Ops.
Variable cfg : config.
Variable alloc : loc -> Z -> bool.
Variable oldest : N.
Variable init : list bstate.
Variable t0 : N.
Notation good := (good cfg alloc oldest init t0).

Lemma quiet_not_wwritten s : good s -> quiet cfg s -> wwritten s = false.
Proof.
  intros G [Qr Qp]. pose proof (good_inv1 _ _ _ _ _ _ G) as II.
  destruct (wwritten s) eqn:E; [exfalso|reflexivity]. unfold wwritten in E.
  assert (Hw : s_r s = RW WWritten \/ exists k, s_p s = PW k WWritten).
  { destruct (s_r s) as [| |[]]; auto; destruct (s_p s) as [| | | | | | | |k []|]; try discriminate; eauto. }
  destruct Hw as [Er|[k Ep]].
  - destruct (holder_enabled_r cfg s II) as [H|H]; [unfold r_holds; rewrite Er; reflexivity| |congruence].
    unfold r_in_io in H. rewrite Er in H. discriminate.
  - destruct (holder_enabled_p cfg s II) as [H|H]; [unfold p_holds; rewrite Ep; reflexivity| |congruence].
    unfold p_in_io in H. rewrite Ep in H. discriminate.
Qed.

(** operations other than PopFront / PushBack / completion of a state write
    leave the release bookkeeping, the block regions and the write in flight
    alone *)
Lemma other_ops op x x1 res : good (x_sys x) -> quiet cfg (x_sys x) -> tag op <> 3%Z -> tag op <> 4%Z -> tag op <> 6%Z ->
  tri cfg op x x1 res ->
  offs (s_pbl (x_sys x1)) = offs (s_pbl (x_sys x)) /\ rfields (s_pbl (x_sys x1)) = rfields (s_pbl (x_sys x))
  /\ writing_state (x_sys x1) = writing_state (x_sys x) /\ wwritten (x_sys x1) = wwritten (x_sys x)
  /\ x_nwr x1 = x_nwr x.
Proof.
  intros G Q N3 N4 N6 T. pose proof (good_inv1 _ _ _ _ _ _ G) as II.
  destruct T as [[-> _]|[[e [He [Hs [_ En2]]]]|[t [a [Hth Ht]]]]]; [splits; auto| |].
  - assert (Hne : forall t a, e <> EStep t a) by (intros t a E; subst e; exact He).
    destruct (env_frame cfg _ _ _ Hne Hs) as [Er Ep].
    pose proof (step_act _ _ _ _ Hs) as Ha. pose proof (act_rel _ _ _ Ha) as Fr.
    assert (Hcw : writing_state (x_sys x1) = writing_state (x_sys x) /\ wwritten (x_sys x1) = wwritten (x_sys x)).
    { apply cw_same; unfold wp_r, wp_p; rewrite ?Er, ?Ep; reflexivity. }
    destruct Hcw as [Hc1 Hc2].
    destruct e as [al| |idx size|k blk seed|d| |t a]; cbn [env_ok] in He; cbn [act_of] in Ha, Fr;
      [destruct He as [Hc _]; lia|destruct He as [Hc _]; lia| | | | |destruct He].
    + cbn in Ha. injection Ha as Hp. rewrite <- Hp. splits; auto.
    + destruct (nth_error (s_uploads (x_sys x)) k) as [[[tok sz]|]|] eqn:Eu.
      * destruct Fr as [F1 [F2 [F3 _]]]. splits; auto; [eapply afin_offs; eauto|unfold rfields; congruence].
      * cbn in Ha. injection Ha as Hp. rewrite <- Hp. splits; auto.
      * cbn in Ha. injection Ha as Hp. rewrite <- Hp. splits; auto.
    + cbn in Ha. injection Ha as Hp. rewrite <- Hp. splits; auto.
    + cbn in Ha. injection Ha as Hp. rewrite <- Hp. splits; auto.
  - destruct (tstep_ok _ _ _ _ _ Ht) as [Hs [_ [Hwr _]]].
    destruct (thr_act_none _ _ _ _ _ Hth) as [Han Hng]. rewrite Hng in Hwr.
    pose proof (step_act _ _ _ _ Hs) as Ha. rewrite Han in Ha. cbn in Ha. injection Ha as Hp.
    rewrite <- Hp. split; [reflexivity|]. split; [reflexivity|].
    pose proof Hth as Hth0. destruct Hth as [_ [_ Hth]].
    cut (writing_state (x_sys x1) = writing_state (x_sys x) /\ wwritten (x_sys x1) = wwritten (x_sys x));
      [intros [H1 H2]; auto|].
    apply cw_same; destruct t; cbn [step] in Hs.
    + pose proof (rstep_shape _ _ _ _ Hs) as Sh. unfold wp_r. revert Sh.
      destruct Hth as [[E [Et _]]|[[E _]|[_ [_ [[_ [_ [dl Er]]]|[_ [Et _]]]]]]]; try discriminate Et; try lia.
      rewrite Er. intros [[w' [-> ->]]|[Hw _]]; [reflexivity|discriminate Hw].
    + unfold wp_r. rewrite (pstep_frame _ _ _ _ II Hs). reflexivity.
    + unfold wp_p. rewrite (rstep_frame _ _ _ _ II Hs). reflexivity.
    + destruct (pstep_external _ _ _ _ _ _ II Hth0 Hs) as [Hpe _]. unfold wp_p.
      revert N6. destruct Hpe; intros N6; try reflexivity; contradiction N6; reflexivity.
Qed.

Lemma write_completes op x t : good (x_sys x) -> tag op = 6%Z -> writer (x_sys x) = Some t ->
  exists x1 res, do_op cfg op x = Ok (x1, res) /\ good (x_sys x1)
    /\ s_pbl (x_sys x1) = s_pbl (x_sys x) /\ x_nwr x1 = x_nwr x
    /\ writing_state (x_sys x1) = None /\ wwritten (x_sys x1) = sx_bool (sx_nth op 1).
Proof.
  intros G Hc Hw. pose proof (good_inv1 _ _ _ _ _ _ G) as II.
  destruct (reachable_inv_all _ _ _ _ _ _ (proj1 G)) as [_ [_ [I3 _]]].
  rewrite do_op_at, Hc. unfold op_at, op6. cbv zeta. rewrite Hw. unfold d_lift.
  destruct (tstep cfg t _ x) as [[x1|]|] eqn:Et.
  2:{ exfalso. eapply tstep_nopanic; eauto. }
  2:{ exfalso. unfold tstep in Et. destruct (writer_cases _ _ Hw) as [[-> [st Er]]|[-> [k [st Ep]]]];
        cbn [step] in Et; [unfold rstep in Et; rewrite Er in Et|unfold pstep in Et; rewrite Ep in Et];
        cbn in Et; destruct (sx_bool (sx_nth op 1)); discriminate. }
  destruct (tstep_ok _ _ _ _ _ Et) as [Hs [_ [Hwr _]]].
  exists x1, (L [A 1%Z]). split; [reflexivity|]. split; [eapply step_good; eauto|].
  pose proof (step_act _ _ _ _ Hs) as Ha.
  destruct (writer_cases _ _ Hw) as [[-> [st Er]]|[-> [k [st Ep]]]]; cbn [step act_of] in *.
  - rewrite Er in Ha. cbn in Ha. injection Ha as Hp. split; [symmetry; exact Hp|].
    unfold at_getstate in Hwr. rewrite Er in Hwr. split; [exact Hwr|].
    pose proof (rstep_frame _ _ _ _ II Hs) as Epp. pose proof (rstep_shape _ _ _ _ Hs) as Sh. rewrite Er in Sh.
    cbn [a_ok] in Sh.
    assert (Hpn : cw (wp_p (x_sys x)) = None).
    { destruct I3 as [_ I3]. unfold r_holds, p_holds in I3. rewrite Er in I3. cbn in I3. unfold wp_p, cw.
      destruct (s_p (x_sys x)) as [| | | | | | | |k []|]; try reflexivity; cbn in I3; discriminate. }
    unfold wp_p in Hpn. rewrite <- Epp in Hpn. rewrite writing_state_cw, wwritten_cw. unfold wp_p. rewrite Hpn. unfold wp_r.
    destruct Sh as [[w' [-> [[Hok ->]|[Hok ->]]]]|[Hw' _]]; [| |discriminate Hw']; rewrite Hok; split; reflexivity.
  - rewrite Ep in Ha. cbn in Ha. injection Ha as Hp. split; [symmetry; exact Hp|].
    unfold at_getstate in Hwr. rewrite Ep in Hwr. split; [exact Hwr|].
    pose proof (pstep_frame _ _ _ _ II Hs) as Err. destruct (pstep_shape _ _ _ _ II Hs) as [_ [_ [Sh _]]]. rewrite Ep in Sh.
    cbn [a_ok] in Sh.
    assert (Hrn : cw (wp_r (x_sys x)) = None).
    { destruct I3 as [_ I3]. unfold r_holds, p_holds in I3. rewrite Ep in I3. cbn in I3. unfold wp_r, cw.
      destruct (s_r (x_sys x)) as [| |[]]; try reflexivity; cbn in I3; discriminate. }
    unfold wp_r in Hrn. rewrite <- Err in Hrn. rewrite writing_state_cw, wwritten_cw. unfold wp_r. rewrite Hrn. unfold wp_p.
    destruct Sh as [[w' [-> [[Hok ->]|[Hok ->]]]]|[Hw' _]]; [| |discriminate Hw']; rewrite Hok; split; reflexivity.
Qed.

End Ops.
