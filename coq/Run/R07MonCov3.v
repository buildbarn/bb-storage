(** C07, "the monitor is silent on the model" — part 8: the coverage
    relation between monitor and model across [do_op] (clauses 4 and 6).

    [cov]: the monitor's block / popped / upload / acknowledgement lists
    against the model state: block offsets by absolute index, pending upload
    tokens, one valid ghost record per acknowledged upload whose level is the
    one the monitor derives from its sync bookkeeping ([lvl]).  [cov_op]: one
    [do_op] preserves it (with the monitor's lists AFTER the operation and the
    sync bookkeeping of BEFORE). *)
From Coq Require Import List NArith ZArith Bool Arith Lia.
From BBS Require Import Common.Sx Persist.PBL Persist.PBLProofs Persist.Syncer Persist.SyncerProofs
  Persist.LiveActs Persist.LiveCover Persist.LiveRelease Run.R07 Run.R07MonBase Run.R07MonOps Run.R07MonC123
  Run.R07MonCov1 Run.R07MonCov2 Run.R07MonOps2.
Import ListNotations.
Local Open Scope nat_scope.

Definition lvl (lo : option nat) (ss : nat) (k : ack) : nat :=
  if should lo k then 2 else if (k_step k <? ss)%nat then 1 else 0.
Definition rng (na : nat) (z : Z) : Prop :=
  (z < 10000)%Z \/ exists j, j < na /\ z = (10000 + 100 * Z.of_nat j)%Z.

Record cov (sb : nat) (lo : option nat) (ss : nat) (blks popped : list Z) (upl : list (Z * Z))
           (acks : list ack) (gs : list gack)
           (p : pbl) (ups : list (option (put_token * Z))) (xb : list (option Z)) (na : nat) : Prop := mkCov {
  cv_blocks : blks = offs p;
  cv_popped : length popped = totalReleased p;
  cv_nodup : NoDup (popped ++ blks);
  cv_range : Forall (rng na) (popped ++ blks);
  cv_len : length upl = length ups /\ length xb = length ups;
  cv_upl : forall k abs size, nth_error ups k = Some (Some (PutAt abs, size)) ->
     exists lo en, nth_error upl k = Some (lo, en) /\ nth_error (popped ++ blks) abs = Some lo /\
       (forall off, nth_error xb k = Some (Some off) -> en = (off + size)%Z);
  cv_acks : Forall2 (ack_ok p) acks gs;
  cv_acks2 : Forall2 (fun k g => nth_error (popped ++ blks) (o_block (g_o g)) = Some (k_loc k) /\ k_step k < sb
                                 /\ g_lv g = lvl lo ss k) acks gs
}.
Definition covx sb lo ss blks popped upl acks gs (x : xst) : Prop :=
  cov sb lo ss blks popped upl acks gs (s_pbl (x_sys x)) (s_uploads (x_sys x)) (x_blk x) (x_nalloc x).

Lemma offs_set_written bs i w : map b_loc (set_written bs i w) = map b_loc bs.
Proof.
  revert i. induction bs as [|b r IH]; intros [|i]; cbn; auto.
  - destruct (b_written b <? w)%Z; reflexivity.
  - rewrite IH. reflexivity.
Qed.

Lemma offs_bump bs : map b_loc (bump_last_epoch_count bs) = map b_loc bs.
Proof.
  induction bs as [|b r IH]; [reflexivity|]. destruct r as [|b' r']; [reflexivity|].
  change (bump_last_epoch_count (b :: b' :: r')) with (b :: bump_last_epoch_count (b' :: r')).
  cbn [map]. rewrite IH. reflexivity.
Qed.

Lemma fin_offs tok blk size seed p p' fr : put_finalize tok blk size seed p = Ok (p', fr) -> offs p' = offs p.
Proof.
  intros Hf. destruct (fin_cases _ _ _ _ _ _ _ Hf) as [[-> _]|
    (abs & off & bumped & _ & _ & _ & _ & _ & _ & Fb & _)]; [reflexivity|].
  unfold offs. rewrite Fb. rewrite <- !(map_map b_loc fst).
  destruct bumped; rewrite ?offs_bump, offs_set_written; reflexivity.
Qed.

Lemma fin_seeds_len tok blk size seed p p' fr : put_finalize tok blk size seed p = Ok (p', fr) ->
  length (epochSeeds p') <= S (length (epochSeeds p)).
Proof.
  intros Hf. destruct (fin_cases _ _ _ _ _ _ _ Hf) as [[-> _]|
    (abs & off & bumped & _ & _ & _ & _ & _ & _ & _ & Fs & _)]; [lia|].
  rewrite Fs. destruct bumped; rewrite ?app_length; cbn; lia.
Qed.

Lemma clear_nth_len {A} (l : list (option A)) k : length (clear_nth l k) = length l.
Proof. revert k. induction l as [|a r IH]; intros [|k]; cbn; auto. Qed.

Lemma clear_nth_some {A} (l : list (option A)) k k' v : nth_error (clear_nth l k) k' = Some (Some v) ->
  nth_error l k' = Some (Some v).
Proof.
  revert k k'. induction l as [|a r IH]; intros [|k] [|k']; cbn; auto; try discriminate. apply IH.
Qed.

Lemma nth_error_offs p i : nth_error (offs p) i = option_map (fun b => fst (b_loc b)) (nth_error (blocks p) i).
Proof. unfold offs. apply nth_error_map. Qed.

Lemma zmem_in z l : zmem z l = true <-> In z l.
Proof.
  unfold zmem. rewrite existsb_exists. split.
  - intros [y [Hy E]]. apply Z.eqb_eq in E. subst. exact Hy.
  - intros H. exists z. split; [exact H|apply Z.eqb_refl].
Qed.

Lemma F2_app {A B} (R : A -> B -> Prop) l1 l2 a b : Forall2 R l1 l2 -> R a b -> Forall2 R (l1 ++ [a]) (l2 ++ [b]).
Proof. intros F H. apply Forall2_app; [exact F|constructor; [exact H|constructor]]. Qed.

Lemma F2_impl2 {A B} (R R' : A -> B -> Prop) l1 l2 : (forall a b, R a b -> R' a b) -> Forall2 R l1 l2 -> Forall2 R' l1 l2.
Proof. intros H F. induction F; constructor; auto. Qed.

Lemma F2_map_r {A B C} (R : A -> C -> Prop) (f : B -> C) l1 l2 :
  Forall2 (fun a b => R a (f b)) l1 l2 -> Forall2 R l1 (map f l2).
Proof. intros F. induction F; cbn; constructor; auto. Qed.

Lemma F2_in_l {A B} (R : A -> B -> Prop) l1 l2 a : Forall2 R l1 l2 -> In a l1 -> exists b, R a b.
Proof. intros F. induction F as [|x y l l' H F IH]; intros []; subst; eauto. Qed.

Lemma wobs_writer res x t st : inv3 (x_sys x) -> written_state (x_sys x) t = Some st ->
  exists w, ms_wobs (enc_obs res x) = Some w /\ sx_nat (sx_nth w 1) = x_nwr x /\ L [sx_nth w 2; sx_nth w 3] = enc_st st.
Proof.
  intros [_ I3] Hw. unfold ms_wobs. rewrite obs_nth1, obs_nth2. unfold enc_r, enc_p.
  destruct t; cbn [written_state] in Hw.
  - destruct (s_r (x_sys x)) as [| |[]] eqn:Er; try discriminate. inversion Hw; subst.
    cbn [enc_wpc]. change (is_write (L [A 1; of_nat (x_nwr x); of_N (fst st); L (map enc_bstate (snd st))])) with true.
    cbn iota. eexists. split; [reflexivity|]. split; [apply sx_nat_of_nat|reflexivity].
  - destruct (s_p (x_sys x)) as [| | | | | | | |k []|] eqn:Ep; try discriminate. inversion Hw; subst.
    assert (is_write (match s_r (x_sys x) with
                      | RWait _ => L [A 0] | RW w => enc_wpc (x_nwr x) false w | RStart => L [A 99] end) = false) as ->.
    { unfold r_holds, p_holds in I3. rewrite Ep in I3. cbn in I3.
      destruct (s_r (x_sys x)) as [| |[]]; try reflexivity. cbn in I3. discriminate. }
    cbn [enc_wpc]. change (is_write (L [A 1; of_nat (x_nwr x); of_N (fst st); L (map enc_bstate (snd st))])) with true.
    cbn iota. eexists. split; [reflexivity|]. split; [apply sx_nat_of_nat|reflexivity].
Qed.

Lemma wobs_none res x : (forall t st, written_state (x_sys x) t <> Some st) -> ms_wobs (enc_obs res x) = None.
Proof.
  intros H. unfold ms_wobs. rewrite obs_nth1, obs_nth2. unfold enc_r, enc_p.
  pose proof (H TR) as Hr. pose proof (H TP) as Hp. cbn [written_state] in Hr, Hp.
  destruct (s_r (x_sys x)) as [| |[]]; try (exfalso; eapply Hr; reflexivity);
    destruct (s_p (x_sys x)) as [| | | | | | | |k []|]; try (exfalso; eapply Hp; reflexivity); reflexivity.
Qed.

Lemma NoDup_snoc {A} (l : list A) z : NoDup l -> ~ In z l -> NoDup (l ++ [z]).
Proof.
  induction l as [|a r IH]; intros Hn Hi; cbn; [constructor; [intros []|constructor]|].
  inversion Hn; subst. constructor.
  - intros H. apply in_app_or in H. destruct H as [H|[H|[]]]; [contradiction|subst; apply Hi; left; reflexivity].
  - apply IH; [assumption|]. intros H. apply Hi. right. exact H.
Qed.

Lemma cov_sb sb sb' lo ss blks popped upl acks gs p ups xb na : sb <= sb' ->
  cov sb lo ss blks popped upl acks gs p ups xb na -> cov sb' lo ss blks popped upl acks gs p ups xb na.
Proof.
  intros Hle [C1 C2 C3 C4 C5 C6 C7 C8]. constructor; auto.
  eapply F2_impl2; [|exact C8]. intros k g [H1 [H2 H3]]. splits; auto. lia.
Qed.

(** the ghost records after a block-list call that leaves the levels alone *)
Lemma acks2_next a p sb sb' lo ss (h h' : list Z) acks gs : sb <= sb' ->
  (forall lv, lv_next lv a = lv) -> (forall n z, nth_error h n = Some z -> nth_error h' n = Some z) ->
  Forall2 (fun k g => nth_error h (o_block (g_o g)) = Some (k_loc k) /\ k_step k < sb /\ g_lv g = lvl lo ss k) acks gs ->
  Forall2 (fun k g => nth_error h' (o_block (g_o g)) = Some (k_loc k) /\ k_step k < sb' /\ g_lv g = lvl lo ss k)
          acks (map (g_next a p) gs).
Proof.
  intros Hle Hl Hh F. apply F2_map_r. eapply F2_impl2; [|exact F].
  intros k g [H1 [H2 H3]]. unfold g_next. cbn [g_o g_lv]. rewrite Hl. splits; auto. lia.
Qed.

Lemma bp_same m op o : (tag op <> 3%Z \/ ms_hit o = false) -> (tag op <> 4%Z \/ tag (sx_nth o 0) <> 0%Z) ->
  ms_bp m op o = (m_blocks m, m_popped m).
Proof.
  intros H3 H4. unfold ms_bp. rewrite (code_hit_off _ _ _ H3).
  assert (Z.eqb (tag op) 4 && Z.eqb (tag (sx_nth o 0)) 0 = false) as ->; [|reflexivity].
  apply code_hit_off. destruct H4 as [H|H]; [left; exact H|right; apply Z.eqb_neq; exact H].
Qed.

Lemma upl_same m op o : (tag op <> 1%Z \/ ms_hit o = false) -> ms_upl m op o = m_upl m.
Proof. intros H. unfold ms_upl. rewrite (code_hit_off _ _ _ H). reflexivity. Qed.

Lemma acks_same m op o : (tag op <> 2%Z \/ tag (sx_nth o 0) <> 0%Z) -> ms_acks m op o = m_acks m.
Proof.
  intros H. unfold ms_acks.
  assert (Z.eqb (tag op) 2 && Z.eqb (tag (sx_nth o 0)) 0 = false) as ->; [|reflexivity].
  apply code_hit_off. destruct H as [H|H]; [left; exact H|right; apply Z.eqb_neq; exact H].
Qed.

Lemma cur_same m op o : (tag op <> 6%Z \/ ms_hit o = false) -> ms_cur0 m op o = m_cur m /\ ms_write_ok op o = false.
Proof. intros H. unfold ms_cur0, ms_write_ok, ms_write_done. rewrite (code_hit_off _ _ _ H). auto. Qed.

Section C46.
Variable cfg : config.
Variable alloc : loc -> Z -> bool.
Variable oldest : N.
Variable init : list bstate.
Variable t0 : N.
Notation good := (good cfg alloc oldest init t0).
Notation rel1 := (rel1 cfg alloc oldest init t0).

Record rel2 (rem : nat) (m : mst) (x : xst) : Prop := mkRel2 {
  r2_1 : rel1 m x;
  r2_cov : exists gs, covx (m_step m) (m_last_ok_start m) (m_series_start m) (m_blocks m) (m_popped m) (m_upl m)
                           (m_acks m) gs x;
  r2_series : m_series_start m <= m_step m /\ (forall j, m_last_ok_start m = Some j -> j <= m_series_start m);
  r2_nwr : m_nwr m = x_nwr x;
  r2_w : exists Etot, Etot + length (epochSeeds (s_pbl (x_sys x))) + rem < N.to_nat M32 /\
                      Wp (m_acks m) Etot (m_step m) (x_sys x) (m_cur m)
}.

Definition post1 (rem : nat) (m : mst) (op o : sx) (x x1 : xst) : Prop :=
  exists gs1 Etot1,
    covx (S (m_step m)) (m_last_ok_start m) (m_series_start m) (fst (ms_bp m op o)) (ms_popped m op o)
         (ms_upl m op o) (ms_acks m op o) gs1 x1
    /\ Etot1 + length (epochSeeds (s_pbl (x_sys x1))) + rem < N.to_nat M32
    /\ Wp (ms_acks m op o) Etot1 (S (m_step m)) (x_sys x1) (ms_cur0 m op o)
    /\ x_nwr x1 = m_nwr m
    /\ ms_v46 m op o = []
    /\ ((forall k, In k (ms_acks m op o) -> k_step k < m_step m) \/
        (s_p (x_sys x1) = s_p (x_sys x) /\ s_cancel (x_sys x1) = s_cancel (x_sys x) /\ tag op = 2%Z)).

Lemma lvl_step_old lo ss i k : ss <= i -> (forall j, lo = Some j -> j <= ss) -> k_step k = i -> lvl lo ss k = 0.
Proof.
  intros H1 H2 H3. unfold lvl, should. destruct lo as [j|].
  - specialize (H2 j eq_refl). destruct (Nat.ltb_spec (k_step k) j); [lia|]. destruct (Nat.ltb_spec (k_step k) ss); [lia|reflexivity].
  - destruct (Nat.ltb_spec (k_step k) ss); [lia|reflexivity].
Qed.

Lemma old_steps m gs x : covx (m_step m) (m_last_ok_start m) (m_series_start m) (m_blocks m) (m_popped m) (m_upl m)
                              (m_acks m) gs x -> forall k, In k (m_acks m) -> k_step k < m_step m.
Proof.
  intros C k Hk. destruct (F2_in_l _ _ _ _ (cv_acks2 _ _ _ _ _ _ _ _ _ _ _ _ C) Hk) as [g [_ [H _]]]. exact H.
Qed.

(** the in-flight write across one block-list call, for an unchanged acknowledgement list *)
Lemma Wp_act acks Etot Etot' sb sb' s s' cur a : sb <= sb' -> Etot + popc a (s_pbl s) <= Etot' ->
  pbl_inv (s_pbl s) -> apply_act a (s_pbl s) = Ok (s_pbl s') ->
  (forall t st, written_state s' t = Some st -> written_state s t = Some st) ->
  Wp acks Etot sb s cur -> Wp acks Etot' sb' s' cur.
Proof.
  intros Hsb HE I Ha Hw W t st Hws. destruct (W t st (Hw t st Hws)) as [j [po [E0 [H1 [H2 [H3 [H4 H5]]]]]]].
  exists j, po, (E0 + popc a (s_pbl s)). splits; auto; [eapply winv_act; eauto|lia|].
  intros j0 Hj. specialize (H5 j0 Hj). lia.
Qed.

Lemma post_keep rem m x op o x1 : rel2 (S rem) m x ->
  s_pbl (x_sys x1) = s_pbl (x_sys x) -> s_uploads (x_sys x1) = s_uploads (x_sys x) -> cnt_same x x1 ->
  x_nwr x1 = x_nwr x ->
  ms_bp m op o = (m_blocks m, m_popped m) -> ms_upl m op o = m_upl m -> ms_acks m op o = m_acks m ->
  ((ms_cur0 m op o = m_cur m /\ ms_write_ok op o = false /\
    (forall t st, written_state (x_sys x1) t = Some st -> written_state (x_sys x) t = Some st)) \/
   (ms_v46 m op o = [] /\ forall t st, written_state (x_sys x1) t <> Some st)) ->
  post1 rem m op o x x1.
Proof.
  intros [R [gs C] [S1 S2] Hnwr [Etot [Hb W]]] Ep Eu [Eb En] Enw Ebp Eupl Eacks Hcur.
  exists gs, Etot. unfold ms_popped. rewrite Ebp, Eupl, Eacks. cbn [fst snd].
  split; [|split; [|split; [|split; [|split]]]].
  - unfold covx in *. rewrite Ep, Eu, Eb, En. eapply cov_sb; [|exact C]. lia.
  - rewrite Ep. lia.
  - destruct Hcur as [[E1 [E2 Hw]]|[E1 Hw]].
    + rewrite E1. pose proof (r1_good _ _ _ _ _ _ _ R) as G.
      apply (Wp_act _ Etot _ (m_step m) _ (x_sys x) _ _ ANone);
        [lia|cbn [popc]; lia|exact (proj1 (good_inv1 _ _ _ _ _ _ G))|rewrite Ep; reflexivity|exact Hw|exact W].
    + intros t st Hws. exfalso. eapply Hw; eauto.
  - congruence.
  - destruct Hcur as [[E1 [E2 Hw]]|[E1 Hw]]; [|exact E1]. unfold ms_v46. rewrite E2. reflexivity.
  - left. eapply old_steps; eauto.
Qed.

Lemma post_push rem m x op o x1 res : rel2 (S rem) m x -> tag op = 4%Z -> sx_nth o 0 = res ->
  (let l : loc := ((10000 + 100 * Z.of_nat (x_nalloc x))%Z, 100%Z) in
   closedForWriting (s_pbl (x_sys x)) = false /\
   step cfg (x_sys x) (EPushBack (Some l)) = Some (Ok (x_sys x1)) /\
   x_blk x1 = x_blk x /\ x_nalloc x1 = S (x_nalloc x) /\ res = L [A 0; A (fst l)]) ->
  x_nwr x1 = x_nwr x -> post1 rem m op o x x1.
Proof.
  intros [R [gs C] [S1 S2] Hnwr [Etot [Hb W]]] Hc Ho [Hcl [Hs [Eb [En Hres]]]] Enw.
  pose proof (r1_good _ _ _ _ _ _ _ R) as G. pose proof (good_inv1 _ _ _ _ _ _ G) as II.
  destruct (reachable_linv _ _ _ _ _ _ (proj1 G)) as [_ LL].
  set (l := ((10000 + 100 * Z.of_nat (x_nalloc x))%Z, 100%Z) : loc) in *.
  pose proof (step_act _ _ _ _ Hs) as Ha. cbn [act_of] in Ha.
  cbn [step] in Hs. injection Hs as Hs.
  assert (Ep : s_pbl (x_sys x1) = set_blocks (s_pbl (x_sys x)) (blocks (s_pbl (x_sys x)) ++ [mkBinfo l 0 0 0 0])).
  { rewrite <- Hs. cbn. unfold push_back. rewrite Hcl. reflexivity. }
  assert (Eu : s_uploads (x_sys x1) = s_uploads (x_sys x)) by (rewrite <- Hs; reflexivity).
  assert (Ebp : ms_bp m op o = (m_blocks m ++ [fst l], m_popped m)).
  { unfold ms_bp, ms_hit. rewrite Ho, Hc, Hres. reflexivity. }
  assert (Eupl : ms_upl m op o = m_upl m) by (apply upl_same; left; rewrite Hc; discriminate).
  assert (Eacks : ms_acks m op o = m_acks m) by (apply acks_same; left; rewrite Hc; discriminate).
  destruct (cur_same m op o) as [Ecur Ewok]; [left; rewrite Hc; discriminate|].
  destruct C as [C1 C2 C3 C4 C5 C6 C7 C8].
  exists (map (g_next (APush (Some l)) (s_pbl (x_sys x))) gs), Etot.
  unfold ms_popped. rewrite Ebp, Eupl, Eacks, Ecur. cbn [fst snd].
  assert (Hnin : ~ In (fst l) (m_popped m ++ m_blocks m)).
  { intros Hi. rewrite Forall_forall in C4. destruct (C4 _ Hi) as [Hlt|[j [Hj Hz]]]; unfold l in *; cbn [fst] in *; lia. }
  split; [|split; [|split; [|split; [|split]]]].
  - unfold covx. rewrite Eu, Eb, En. constructor.
    + rewrite Ep. unfold offs. cbn [blocks set_blocks]. rewrite map_app. cbn [map b_loc]. rewrite C1. reflexivity.
    + rewrite Ep. cbn. exact C2.
    + rewrite app_assoc. apply NoDup_snoc; assumption.
    + rewrite app_assoc. apply Forall_app. split.
      * eapply Forall_impl; [|exact C4]. intros z [Hz|[j [Hj Hz]]]; [left; exact Hz|right; exists j; split; [lia|exact Hz]].
      * constructor; [|constructor]. right. exists (x_nalloc x). split; [lia|reflexivity].
    + exact C5.
    + intros k abs size Hk. destruct (C6 k abs size Hk) as [lo [en [H1 [H2 H3]]]]. exists lo, en. splits; auto.
      rewrite app_assoc. apply nth_error_app_some. exact H2.
    + apply (F2_next _ _ _ _ _ (proj1 II) LL Ha C7).
    + apply acks2_next with (sb := m_step m) (h := m_popped m ++ m_blocks m); [lia|reflexivity| |exact C8].
      intros n z Hn. rewrite app_assoc. apply nth_error_app_some. exact Hn.
  - rewrite Ep. cbn [epochSeeds set_blocks]. lia.
  - apply (Wp_act _ Etot _ (m_step m) _ (x_sys x) _ _ (APush (Some l)));
      [lia|cbn [popc]; lia|exact (proj1 II)|exact Ha| |exact W].
    intros t st. rewrite <- Hs. destruct t; cbn; auto.
  - congruence.
  - unfold ms_v46. rewrite Ewok. reflexivity.
  - left. apply (old_steps m gs x). constructor; auto.
Qed.

Lemma post_pop rem m x op o x1 res : rel2 (S rem) m x -> tag op = 3%Z -> sx_nth o 0 = res -> res = L [A 1] ->
  step cfg (x_sys x) EPopFront = Some (Ok (x_sys x1)) -> cnt_same x x1 -> x_nwr x1 = x_nwr x ->
  post1 rem m op o x x1.
Proof.
  intros [R [gs C] [S1 S2] Hnwr [Etot [Hb W]]] Hc Ho Hres Hs [Eb En] Enw.
  pose proof (r1_good _ _ _ _ _ _ _ R) as G. pose proof (good_inv1 _ _ _ _ _ _ G) as II.
  destruct (reachable_linv _ _ _ _ _ _ (proj1 G)) as [_ LL].
  pose proof (step_act _ _ _ _ Hs) as Ha. cbn [act_of] in Ha.
  assert (Hne : forall t a, EPopFront <> EStep t a) by (intros; discriminate).
  destruct (env_frame cfg _ _ _ Hne Hs) as [Er Ep].
  cbn [step] in Hs. destruct (blocks (s_pbl (x_sys x))) as [|fb rest] eqn:Ebl; [discriminate|].
  destruct (pop_front (s_pbl (x_sys x))) as [p'|] eqn:Epop; [|discriminate]. injection Hs as Hs.
  assert (Epb : s_pbl (x_sys x1) = p') by (rewrite <- Hs; reflexivity).
  assert (Eu : s_uploads (x_sys x1) = s_uploads (x_sys x)) by (rewrite <- Hs; reflexivity).
  destruct (pop_fields _ _ _ _ Ebl Epop) as [Fb [Fs [_ [Ft _]]]].
  destruct C as [C1 C2 C3 C4 C5 C6 C7 C8].
  assert (Emb : m_blocks m = fst (b_loc fb) :: offs p').
  { rewrite C1. unfold offs. rewrite Ebl, Fb. reflexivity. }
  assert (Ebp : ms_bp m op o = (offs p', m_popped m ++ [fst (b_loc fb)])).
  { unfold ms_bp, ms_hit. rewrite Ho, Hc, Hres, Emb. reflexivity. }
  assert (Eupl : ms_upl m op o = m_upl m) by (apply upl_same; left; rewrite Hc; discriminate).
  assert (Eacks : ms_acks m op o = m_acks m) by (apply acks_same; left; rewrite Hc; discriminate).
  destruct (cur_same m op o) as [Ecur Ewok]; [left; rewrite Hc; discriminate|].
  assert (Eh : (m_popped m ++ [fst (b_loc fb)]) ++ offs p' = m_popped m ++ m_blocks m).
  { rewrite <- app_assoc, Emb. reflexivity. }
  assert (Hec : b_epochs fb <= length (epochSeeds (s_pbl (x_sys x)))).
  { rewrite <- (i_sum _ (proj1 II)), Ebl. apply hd_epochs_le. }
  exists (map (g_next APop (s_pbl (x_sys x))) gs), (Etot + b_epochs fb).
  unfold ms_popped. rewrite Ebp, Eupl, Eacks, Ecur. cbn [fst snd].
  split; [|split; [|split; [|split; [|split]]]].
  - unfold covx. rewrite Eu, Eb, En, Epb. constructor; rewrite ?Eh; auto.
    + rewrite app_length, Ft. cbn. lia.
    + rewrite <- Epb. apply (F2_next _ _ _ _ _ (proj1 II) LL Ha C7).
    + apply acks2_next with (sb := m_step m) (h := m_popped m ++ m_blocks m); [lia|reflexivity|auto|exact C8].
  - rewrite Epb, Fs, skipn_length. lia.
  - apply (Wp_act _ Etot _ (m_step m) _ (x_sys x) _ _ APop);
      [lia|cbn [popc]; rewrite Ebl; lia|exact (proj1 II)|exact Ha| |exact W].
    intros t st. destruct t; cbn [written_state]; rewrite ?Er, ?Ep; auto.
  - congruence.
  - unfold ms_v46. rewrite Ewok. reflexivity.
  - left. apply (old_steps m gs x). constructor; auto.
Qed.

Lemma post_put rem m x op o x1 res idx : rel2 (S rem) m x -> tag op = 1%Z -> sx_nth o 0 = res ->
  (let p := s_pbl (x_sys x) in
   idx < length (blocks p) /\
   step cfg (x_sys x) (EPutStart idx (sx_Z (sx_nth op 2))) = Some (Ok (x_sys x1)) /\
   x_blk x1 = x_blk x ++ [if sx_bool (sx_nth op 4) then None else Some (sx_Z (sx_nth op 3))] /\
   x_nalloc x1 = x_nalloc x /\
   res = L [A 1; A (if closedForWriting p then (-1)%Z else
                    match nth_error (blocks p) idx with Some b => fst (b_loc b) | None => (-1)%Z end)]) ->
  x_nwr x1 = x_nwr x -> post1 rem m op o x x1.
Proof.
  intros [R [gs C] [S1 S2] Hnwr [Etot [Hb W]]] Hc Ho [Hidx [Hs [Eb [En Hres]]]] Enw.
  pose proof (r1_good _ _ _ _ _ _ _ R) as G. pose proof (good_inv1 _ _ _ _ _ _ G) as II.
  cbn [step] in Hs. destruct (closedForWriting (s_pbl (x_sys x)) || _) eqn:Eg; [|discriminate].
  destruct (put_start idx (s_pbl (x_sys x))) as [tok|] eqn:Etok; [|discriminate]. injection Hs as Hs.
  assert (Epb : s_pbl (x_sys x1) = s_pbl (x_sys x)) by (rewrite <- Hs; reflexivity).
  assert (Eu : s_uploads (x_sys x1) = s_uploads (x_sys x) ++ [Some (tok, sx_Z (sx_nth op 2))]) by (rewrite <- Hs; reflexivity).
  assert (Ebp : ms_bp m op o = (m_blocks m, m_popped m)).
  { apply bp_same; left; rewrite Hc; discriminate. }
  set (lo := if closedForWriting (s_pbl (x_sys x)) then (-1)%Z else
             match nth_error (blocks (s_pbl (x_sys x))) idx with Some b => fst (b_loc b) | None => (-1)%Z end) in *.
  assert (Eupl : ms_upl m op o = m_upl m ++ [(lo, (sx_Z (sx_nth op 3) + sx_Z (sx_nth op 2))%Z)]).
  { unfold ms_upl, ms_hit. rewrite Ho, Hc, Hres. reflexivity. }
  assert (Eacks : ms_acks m op o = m_acks m) by (apply acks_same; left; rewrite Hc; discriminate).
  destruct (cur_same m op o) as [Ecur Ewok]; [left; rewrite Hc; discriminate|].
  destruct C as [C1 C2 C3 C4 [C5a C5b] C6 C7 C8].
  exists gs, Etot. unfold ms_popped. rewrite Ebp, Eupl, Eacks, Ecur. cbn [fst snd].
  split; [|split; [|split; [|split; [|split]]]].
  - unfold covx. rewrite Eu, Eb, En, Epb. constructor; auto.
    + rewrite !app_length. cbn. lia.
    + intros k abs size Hk.
      destruct (Nat.lt_ge_cases k (length (s_uploads (x_sys x)))) as [Hlt|Hge].
      * rewrite nth_error_app1 in Hk by exact Hlt. destruct (C6 k abs size Hk) as [lo0 [en [H1 [H2 H3]]]].
        exists lo0, en. splits; auto.
        -- apply nth_error_app_some. exact H1.
        -- intros off Hoff. apply H3. rewrite nth_error_app1 in Hoff by lia. exact Hoff.
      * rewrite nth_error_app2 in Hk by exact Hge.
        destruct (k - length (s_uploads (x_sys x))) as [|n] eqn:Ek; [|destruct n; discriminate].
        assert (k = length (s_uploads (x_sys x))) as -> by lia. cbn in Hk. inversion Hk; subst tok size. clear Hk.
        unfold put_start in Etok. destruct (closedForWriting (s_pbl (x_sys x))) eqn:Ecl; [discriminate|].
        destruct (idx <? length (blocks (s_pbl (x_sys x)))); [|discriminate]. inversion Etok; subst abs. clear Etok.
        exists lo, (sx_Z (sx_nth op 3) + sx_Z (sx_nth op 2))%Z. splits.
        -- rewrite nth_error_app2 by lia. replace (length (s_uploads (x_sys x)) - length (m_upl m)) with 0 by lia. reflexivity.
        -- rewrite nth_error_app2 by lia. rewrite C2, Nat.add_comm, Nat.add_sub, C1, nth_error_offs. unfold lo.
           destruct (nth_error (blocks (s_pbl (x_sys x))) idx) eqn:En0; [reflexivity|].
           apply nth_error_None in En0. lia.
        -- intros off Hoff. rewrite nth_error_app2 in Hoff by lia.
           replace (length (s_uploads (x_sys x)) - length (x_blk x)) with 0 in Hoff by lia. cbn in Hoff.
           destruct (sx_bool (sx_nth op 4)); inversion Hoff. reflexivity.
    + eapply F2_impl2; [|exact C8]. intros k g [H1 [H2 H3]]. splits; auto.
  - rewrite Epb. lia.
  - apply (Wp_act _ Etot _ (m_step m) _ (x_sys x) _ _ ANone);
      [lia|cbn [popc]; lia|exact (proj1 II)|rewrite Epb; reflexivity| |exact W].
    intros t st. rewrite <- Hs. destruct t; auto.
  - congruence.
  - unfold ms_v46. rewrite Ewok. reflexivity.
  - left. apply (old_steps m gs x). constructor; auto.
Qed.

Lemma post_fin rem m x op o x1 res tok size blk seed p' fr : rel2 (S rem) m x -> tag op = 2%Z -> sx_nth o 0 = res ->
  (let k := sx_nat (sx_nth op 1) in
   let p := s_pbl (x_sys x) in
   nth_error (s_uploads (x_sys x)) k = Some (Some (tok, size)) /\ nth_error (x_blk x) k = Some blk /\
   put_finalize tok blk size seed p = Ok (p', fr) /\
   step cfg (x_sys x) (EFinalize k blk seed) = Some (Ok (x_sys x1)) /\ cnt_same x x1 /\
   match fr with
   | FinOk off => exists e bfl sd,
       index_to_ref (match tok with PutAt abs => abs - totalReleased p' | PutClosed => 0 end) p' = Ok ((e, bfl), sd)
       /\ res = L [A 0; A off; of_N e; of_N bfl; of_N sd]
   | _ => tag res <> 0%Z
   end) ->
  x_nwr x1 = x_nwr x -> post1 rem m op o x x1.
Proof.
  intros [R [gs C] [S1 S2] Hnwr [Etot [Hb W]]] Hc Ho [Hu [Hxb [Hf [Hs [[Eb En] Hfr]]]]] Enw.
  pose proof (r1_good _ _ _ _ _ _ _ R) as G. pose proof (good_inv1 _ _ _ _ _ _ G) as II.
  destruct (reachable_linv _ _ _ _ _ _ (proj1 G)) as [_ LL].
  pose proof (step_act _ _ _ _ Hs) as Ha. cbn [act_of] in Ha. rewrite Hu in Ha.
  assert (Hne : forall t a, EFinalize (sx_nat (sx_nth op 1)) blk seed <> EStep t a) by (intros; discriminate).
  destruct (env_frame cfg _ _ _ Hne Hs) as [Er Ep]. pose proof (env_now_cancel _ _ _ _ Hs) as [_ Ecan].
  cbn [step] in Hs. rewrite Hu, Hf in Hs. injection Hs as Hs.
  assert (Epb : s_pbl (x_sys x1) = p') by (rewrite <- Hs; reflexivity).
  assert (Eu : s_uploads (x_sys x1) = clear_nth (s_uploads (x_sys x)) (sx_nat (sx_nth op 1))) by (rewrite <- Hs; reflexivity).
  assert (Ebp : ms_bp m op o = (m_blocks m, m_popped m)).
  { apply bp_same; left; rewrite Hc; discriminate. }
  assert (Eupl : ms_upl m op o = m_upl m) by (apply upl_same; left; rewrite Hc; discriminate).
  destruct (cur_same m op o) as [Ecur Ewok]; [left; rewrite Hc; discriminate|].
  destruct C as [C1 C2 C3 C4 [C5a C5b] C6 C7 C8].
  pose proof (fin_offs _ _ _ _ _ _ _ Hf) as Foffs. pose proof (fin_sfields _ _ _ _ _ _ _ Hf) as Fsf.
  pose proof (fin_seeds_len _ _ _ _ _ _ _ Hf) as Fsl.
  assert (Ftr : totalReleased p' = totalReleased (s_pbl (x_sys x))) by (unfold sfields in Fsf; congruence).
  assert (Fold : Forall2 (ack_ok p') (m_acks m) (map (g_next (AFin tok blk size seed) (s_pbl (x_sys x))) gs)).
  { rewrite <- Epb. apply (F2_next _ _ _ _ _ (proj1 II) LL Ha C7). }
  assert (Fold2 : Forall2 (fun k g => nth_error (m_popped m ++ m_blocks m) (o_block (g_o g)) = Some (k_loc k)
                             /\ k_step k < S (m_step m) /\ g_lv g = lvl (m_last_ok_start m) (m_series_start m) k)
                          (m_acks m) (map (g_next (AFin tok blk size seed) (s_pbl (x_sys x))) gs)).
  { apply acks2_next with (sb := m_step m) (h := m_popped m ++ m_blocks m); [lia|reflexivity|auto|exact C8]. }
  assert (Wold : Wp (m_acks m) Etot (S (m_step m)) (x_sys x1) (m_cur m)).
  { apply (Wp_act _ Etot _ (m_step m) _ (x_sys x) _ _ (AFin tok blk size seed));
      [lia|cbn [popc]; lia|exact (proj1 II)|exact Ha| |exact W].
    intros t st. destruct t; cbn [written_state]; rewrite ?Er, ?Ep; auto. }
  assert (Hcov : forall acks' gs', Forall2 (ack_ok p') acks' gs' ->
            Forall2 (fun k g => nth_error (m_popped m ++ m_blocks m) (o_block (g_o g)) = Some (k_loc k)
                             /\ k_step k < S (m_step m) /\ g_lv g = lvl (m_last_ok_start m) (m_series_start m) k) acks' gs' ->
            covx (S (m_step m)) (m_last_ok_start m) (m_series_start m) (m_blocks m) (m_popped m) (m_upl m) acks' gs' x1).
  { intros acks' gs' F1 F2. unfold covx. rewrite Eu, Eb, En, Epb. constructor; auto.
    - congruence.
    - congruence.
    - rewrite clear_nth_len. auto.
    - intros k abs sz Hk. apply clear_nth_some in Hk. apply C6. exact Hk. }
  assert (Hright : s_p (x_sys x1) = s_p (x_sys x) /\ s_cancel (x_sys x1) = s_cancel (x_sys x) /\ tag op = 2%Z) by auto.
  assert (Hbound : Etot + length (epochSeeds (s_pbl (x_sys x1))) + rem < N.to_nat M32) by (rewrite Epb; lia).
  assert (Hpost : forall gs1, covx (S (m_step m)) (m_last_ok_start m) (m_series_start m) (m_blocks m) (m_popped m)
                                   (m_upl m) (ms_acks m op o) gs1 x1 ->
                     Wp (ms_acks m op o) Etot (S (m_step m)) (x_sys x1) (m_cur m) -> post1 rem m op o x x1).
  { intros gs1 Cv Wv. exists gs1, Etot. unfold ms_popped. rewrite Ebp, Eupl, Ecur. cbn [fst snd].
    splits; [exact Cv|exact Hbound|exact Wv|congruence|unfold ms_v46; rewrite Ewok; reflexivity|right; exact Hright]. }
  assert (Hnoack : tag res <> 0%Z -> post1 rem m op o x x1).
  { intros Hr. eapply Hpost; rewrite (acks_same m op o) by (right; rewrite Ho; exact Hr); [apply Hcov; eauto|exact Wold]. }
  destruct fr as [off| | |]; try (apply Hnoack; exact Hfr).
  (* FinOk: a new acknowledged upload *)
  destruct Hfr as [e [bfl [sd [Hir Hres]]]].
  destruct (fin_cases _ _ _ _ _ _ _ Hf) as [[_ Hno]|
    (abs & off' & bumped & Ht & Hblk & Hfr' & _ & Hge & Hlt & _)]; [exfalso; eapply Hno; reflexivity|].
  inversion Hfr'; subst off'. subst tok blk. clear Hfr'.
  destruct (C6 _ _ _ Hu) as [lo [en [Hul [Hhl Hen]]]]. specialize (Hen off Hxb).
  set (knew := mkAck (m_step m) lo en e).
  assert (Eacks : ms_acks m op o = m_acks m ++ [knew]).
  { unfold ms_acks. rewrite Ho, Hc, Hres. cbn [tag sx_nth sx_list nth sx_Z Z.eqb Pos.eqb andb length Nat.ltb Nat.leb].
    rewrite Hul. unfold knew. change (sx_nth (L [A 0; A off; of_N e; of_N bfl; of_N sd]) 2) with (of_N e).
    rewrite sx_N_of_N. reflexivity. }
  assert (Hloc : lo = fst (nth (abs - totalReleased (s_pbl (x_sys x))) (map b_loc (blocks (s_pbl (x_sys x)))) (0, 0)%Z)).
  { rewrite nth_error_app2 in Hhl by lia. rewrite C2, C1, nth_error_offs in Hhl.
    destruct (nth_error (blocks (s_pbl (x_sys x))) (abs - totalReleased (s_pbl (x_sys x)))) as [b|] eqn:Enb; [|discriminate].
    cbn in Hhl. inversion Hhl; subst lo. erewrite nth_error_nth; [reflexivity|]. apply map_nth_error. exact Enb. }
  destruct (ack_ok_new abs (Some off) size seed _ p' off e bfl sd knew (proj1 II) Hf Hir Hen eq_refl Hloc) as [Hnew Hge'].
  set (gnew := mkG (obj_of (s_pbl (x_sys x)) p' abs (off + size)) 0 0) in *.
  apply (Hpost (map (g_next (AFin (PutAt abs) (Some off) size seed) (s_pbl (x_sys x))) gs ++ [gnew])); rewrite Eacks.
  - apply Hcov; apply F2_app; auto. cbn [g_o g_lv gnew knew k_loc k_step o_block obj_of]. splits; [exact Hhl|lia|].
    symmetry. apply lvl_step_old with (i := m_step m); auto.
  - intros t st Hws. destruct (Wold t st Hws) as [j [po [E0 [H1 [H2 [H3 [H4 H5]]]]]]].
    exists j, po, E0. splits; auto. apply Forall_app. split; [exact H2|]. constructor; [|constructor].
    rewrite Epb in H3. destruct H3 as [H3a H3b].
    apply okw_later with (g := gnew) (E := E0) (p := p'); [exact Hnew|exact Hge'|reflexivity|exact H3a|exact H3b| |].
    + rewrite Epb in Hbound. lia.
    + unfold should. destruct j as [j0|]; [|reflexivity]. specialize (H5 j0 eq_refl).
      apply Nat.ltb_ge. cbn [knew k_step]. (* j0 <= S i is too weak: use the bound before this operation *)
      destruct (W t st) as [j1 [po1 [E1 [G1 [_ [_ [_ G5]]]]]]].
      { destruct t; cbn [written_state] in *; rewrite ?Er, ?Ep in Hws; exact Hws. }
      rewrite H1 in G1. inversion G1; subst j1. apply (G5 j0 eq_refl).
Qed.

(** thread steps with an external answer perform no block-list call *)
Lemma thr_act_none op x t a res : thr_ok op x t a res -> act_of (x_sys x) (EStep t a) = ANone /\ at_getstate t (x_sys x) = false.
Proof.
  intros [_ [_ Hth]]. destruct Hth as [[_ [-> [Hsyn _]]]|[[_ [Hwr _]]|[_ [_ [[_ [-> [dl Er]]]|[_ [-> [dl [Hat _]]]]]]]]].
  - unfold is_syncing in Hsyn. cbn [act_of at_getstate]. destruct (s_p (x_sys x)); try discriminate. auto.
  - destruct (writer_cases _ _ Hwr) as [[-> [st Er]]|[-> [k [st Ep]]]]; cbn [act_of at_getstate]; rewrite ?Er, ?Ep; auto.
  - cbn [act_of at_getstate]. rewrite Er. auto.
  - cbn [act_of at_getstate]. destruct Hat as [Ep|[[k [f Ep]]|[k Ep]]]; rewrite Ep; auto.
Qed.

Lemma cov_op rem m x op x1 res xo :
  rel2 (S rem) m x -> tri cfg op x x1 res -> do_op cfg op x = Ok (x1, res) ->
  post1 rem m op (enc_obs res xo) x x1.
Proof.
  intros R2 T Hd. pose proof R2 as [R [gs C] [S1 S2] Hnwr [Etot [Hb W]]].
  pose proof (r1_good _ _ _ _ _ _ _ R) as G. pose proof (good_inv1 _ _ _ _ _ _ G) as II.
  destruct (reachable_inv_all _ _ _ _ _ _ (proj1 G)) as [_ [_ [I3 _]]].
  set (o := enc_obs res xo).
  assert (Ho : sx_nth o 0 = res) by reflexivity.
  assert (Hnoop : forall (Hres3 : tag op = 3%Z -> tag res <> 1%Z) (Hres1 : tag op = 1%Z -> tag res <> 1%Z)
                         (Hres6 : tag op = 6%Z -> tag res <> 1%Z)
                         (Hres4 : tag op = 4%Z -> tag res <> 0%Z) (Hres2 : tag op = 2%Z -> tag res <> 0%Z),
            x1 = x -> post1 rem m op o x x1).
  { intros H3 H1 H6 H4 H2 ->.
    assert (Hh : forall c, (tag op = c -> tag res <> 1%Z) -> tag op <> c \/ ms_hit o = false).
    { intros c Hc. destruct (Z.eq_dec (tag op) c) as [E|E]; [right|left; exact E].
      unfold ms_hit. rewrite Ho. destruct (Z.eqb_spec (tag res) 1); [exfalso; apply (Hc E); assumption|reflexivity]. }
    assert (Hz : forall c, (tag op = c -> tag res <> 0%Z) -> tag op <> c \/ tag (sx_nth o 0) <> 0%Z).
    { intros c Hc. rewrite Ho. destruct (Z.eq_dec (tag op) c) as [E|E]; [right; auto|left; exact E]. }
    apply post_keep; auto; try (split; reflexivity).
    - apply bp_same; auto.
    - apply upl_same; auto.
    - apply acks_same; auto.
    - left. destruct (cur_same m op o (Hh 6%Z H6)) as [E1 E2]. auto. }
  destruct (Z.eq_dec (tag op) 1) as [E1|N1].
  { destruct (do_op_det1 _ _ _ _ _ E1 Hd) as [[-> Hr]|[idx Hd1]].
    - apply Hnoop; auto; intros; try lia; rewrite Hr; discriminate.
    - apply (post_put rem m x op o x1 res idx R2 E1 Ho Hd1).
      destruct Hd1 as [_ [Hs _]]. cbv zeta in Hs.
      destruct T as [[-> _]|[[e [_ [_ [_ En2]]]]|[t [a [[_ [_ Hth]] _]]]]]; auto.
      destruct Hth as [[E _]|[[E _]|[E _]]]; lia. }
  destruct (Z.eq_dec (tag op) 2) as [E2|N2].
  { destruct (do_op_det2 _ _ _ _ _ E2 Hd) as [[-> Hr]|[tok [size [blk [seed [p' [fr Hd2]]]]]]].
    - apply Hnoop; auto; intros; lia.
    - apply (post_fin rem m x op o x1 res tok size blk seed p' fr R2 E2 Ho Hd2).
      destruct T as [[-> _]|[[e [_ [_ [_ En2]]]]|[t [a [[_ [_ Hth]] _]]]]]; auto.
      destruct Hth as [[E _]|[[E _]|[E _]]]; lia. }
  destruct (Z.eq_dec (tag op) 4) as [E4|N4].
  { destruct (do_op_det4 _ _ _ _ _ E4 Hd) as [[-> Hr]|Hd4].
    - apply Hnoop; auto; intros; lia.
    - apply (post_push rem m x op o x1 res R2 E4 Ho Hd4).
      destruct T as [[-> _]|[[e [_ [_ [_ En2]]]]|[t [a [[_ [_ Hth]] _]]]]]; auto.
      destruct Hth as [[E _]|[[E _]|[E _]]]; lia. }
  pose proof (do_op_cnt _ _ _ _ _ N1 N2 N4 Hd) as Dn.
  destruct T as [[-> Hn]|[[e [He [Hs [En1 En2]]]]|[t [a [Hth Ht]]]]].
  - destruct Hn as [Hn1 _]. apply Hnoop; auto; intros; try lia; rewrite Hn1 by auto; discriminate.
  - (* PopFront, clock, cancellation *)
    assert (Hne : forall t a, e <> EStep t a) by (intros t a E; subst e; exact He).
    destruct (env_frame cfg _ _ _ Hne Hs) as [Er Ep].
    destruct e as [al| |idx size|k blk seed|d| |t a]; cbn [env_ok] in He;
      [destruct He as [Hc _]; lia| |destruct He as [Hc _]; lia|lia| | |destruct He].
    1: { destruct He as [Hc Hres]. apply (post_pop rem m x op o x1 res R2 Hc Ho Hres Hs Dn En2). }
    (* the clock and the cancellation change neither the block list nor the loops *)
    all: destruct He as [Hc _]; cbn [step] in Hs; injection Hs as Hs;
      apply post_keep; auto; try (rewrite <- Hs; reflexivity);
      [apply bp_same|apply upl_same|apply acks_same|]; try (left; rewrite Hc; discriminate).
    all: left; destruct (cur_same m op o) as [E1 E2]; [left; rewrite Hc; discriminate|]; splits; auto;
      intros t st; rewrite <- Hs; destruct t; auto.
  - (* a thread step with an external answer *)
    destruct (tstep_ok _ _ _ _ _ Ht) as [Hs [_ [Hwr _]]].
    destruct (thr_act_none _ _ _ _ _ Hth) as [Han Hng].
    pose proof (step_act _ _ _ _ Hs) as Ha. rewrite Han in Ha. cbn in Ha. injection Ha as Ha.
    pose proof (thr_uploads _ _ _ _ _ II Hs) as Eu.
    rewrite Hng in Hwr.
    destruct Hth as [Hres [_ Hth]].
    assert (Hc : tag op = 5%Z \/ tag op = 6%Z \/ tag op = 8%Z).
    { destruct Hth as [[E _]|[[E _]|[E _]]]; auto. }
    pose proof (written_sub _ _ _ _ _ II Hs Hng) as Hwsub.
    apply post_keep; auto.
    + apply bp_same; left; lia.
    + apply upl_same; left; lia.
    + apply acks_same; left; lia.
    + destruct (Z.eq_dec (tag op) 6) as [E6|N6].
      * (* the state write completes *)
        right.
        destruct Hth as [[E _]|[[_ [Hwr6 _]]|[E _]]]; try lia.
        assert (exists st, written_state (x_sys x) t = Some st) as [st Hw].
        { destruct (writer_cases _ _ Hwr6) as [[-> [st Er]]|[-> [k [st Ep]]]]; cbn [written_state]; rewrite ?Er, ?Ep; eauto. }
        split.
        -- destruct (W t st Hw) as [j [po [E0 [H1 [H2 _]]]]]. unfold ms_v46. rewrite H1.
           rewrite (acks_same m op o) by (left; lia). rewrite (check_write_nil _ _ H2).
           destruct (ms_write_ok op o); reflexivity.
        -- intros t' st' Hw'. pose proof (Hwsub _ _ Hw') as Hw0.
           pose proof (holds_excl _ _ _ I3 (writing_holds _ _ _ Hw0) (writing_holds _ _ _ Hw)) as Et. subst t'.
           (* the writer has left WWriting *)
           destruct t; cbn [step written_state] in *.
           ++ pose proof (rstep_shape _ _ _ _ Hs) as Sh. revert Sh Hw'.
              destruct (s_r (x_sys x)) as [| |[]]; try discriminate. intros [[w' [-> Sw]]|[Sw _]]; [|discriminate Sw].
              destruct Sw as [[_ ->]|[_ ->]]; discriminate.
           ++ destruct (pstep_shape _ _ _ _ II Hs) as [_ [_ [Sh _]]]. revert Sh Hw'.
              destruct (s_p (x_sys x)) as [| | | | | | | |k []|]; try discriminate. intros [[w' [-> Sw]]|[Sw _]]; [|discriminate Sw].
              destruct Sw as [[_ ->]|[_ ->]]; discriminate.
      * left. destruct (cur_same m op o) as [E1 E2]; [left; exact N6|]. auto.
Qed.

Lemma lvl2_iff lo ss k : lvl lo ss k = 2 <-> should lo k = true.
Proof.
  unfold lvl. destruct (should lo k); [split; auto|]. destruct (_ <? _); split; intros H; discriminate.
Qed.

Lemma lvl_enter lo ss i k : k_step k < i -> lvl lo i k = Nat.max (lvl lo ss k) 1.
Proof.
  intros H. unfold lvl. destruct (should lo k); [reflexivity|].
  destruct (Nat.ltb_spec (k_step k) i); [|lia]. destruct (_ <? _); reflexivity.
Qed.

Lemma lvl_done lo ss k b i : (forall j, lo = Some j -> j <= ss) -> k_step k < i ->
  lv_next (lvl lo ss k) (ASyncDone b) = lvl (Some ss) (if b then i else ss) k.
Proof.
  intros H1 H3. unfold lvl, should.
  assert (Hs : match lo with Some j0 => (k_step k <? j0) | None => false end = true -> (k_step k <? ss) = true).
  { destruct lo as [j|]; [|discriminate]. specialize (H1 j eq_refl). intros H. apply Nat.ltb_lt in H. apply Nat.ltb_lt. lia. }
  destruct (match lo with Some j0 => (k_step k <? j0) | None => false end) eqn:E1.
  - rewrite (Hs eq_refl). destruct b; reflexivity.
  - destruct (Nat.ltb_spec (k_step k) ss) as [Hlt|Hge]; destruct b; cbn [lv_next]; try reflexivity.
    + destruct (Nat.ltb_spec (k_step k) i); [reflexivity|lia].
    + destruct (Nat.ltb_spec (k_step k) ss); [lia|reflexivity].
Qed.

Definition nos (p : ppc) : bool :=
  match p with
  | PW _ WAcquire | PW _ WGetState | PW _ (WWriting _) | PW _ (WSleep _) | PExit | PSyncSleep _ _ _ => true
  | _ => false
  end.

Lemma nos_traj f rw x1 x2 : good (x_sys x1) -> nos (s_p (x_sys x1)) = true -> quiesce cfg f rw x1 = Ok x2 ->
  nos (s_p (x_sys x2)) = true.
Proof.
  intros G Hn H.
  destruct (quiesce_ind cfg alloc oldest init t0 (fun xc => nos (s_p (x_sys xc)) = true)) with (f := f) (rw := rw) (x := x1) (x2 := x2)
    as [Q _]; auto.
  intros x t x' P Gx Hi Ht. destruct (tstep_ok _ _ _ _ _ Ht) as [Hs _].
  pose proof (good_inv1 _ _ _ _ _ _ Gx) as II.
  destruct t; cbn [step t_internal] in *.
  - rewrite (rstep_frame _ _ _ _ II Hs). exact P.
  - destruct (pstep_internal _ _ _ II Hi Hs) as [Pi _]. revert P. destruct Pi; cbn; auto; discriminate.
Qed.

Lemma quiet_cancel_nos s : inv1 s -> quiet cfg s -> s_cancel s = true -> nos (s_p s) = true \/ is_syncing s = true.
Proof.
  intros II [_ Qp] Hc.
  destruct (s_p s) as [|ch|ch|dl|keep|keep final|keep final|keep final dl|keep w|] eqn:Ep; auto;
    try (exfalso; unfold p_internal, p_in_io, p_in_timer, enabled in Qp; cbn [step] in Qp; unfold pstep in Qp;
         rewrite Ep in Qp; cbn in Qp; rewrite ?Hc in Qp; cbn in Qp;
         try (revert Qp; match goal with |- context [is_closed ?h ?c] => destruct (is_closed h c) end; intros Qp; cbn in Qp);
         try (revert Qp; match goal with |- context [negb ?k && negb ?f] => destruct k, f end; intros Qp; cbn in Qp);
         discriminate Qp).
  - right. unfold is_syncing. rewrite Ep. reflexivity.
  - destruct w; auto. exfalso.
    destruct (holder_enabled_p cfg s II) as [H|H]; [unfold p_holds; rewrite Ep; reflexivity| |congruence].
    unfold p_in_io in H. rewrite Ep in H. discriminate.
Qed.

Lemma quiet_not_syncret s k f : quiet cfg s -> s_p s <> PSyncRet k f.
Proof.
  intros [_ Qp] E. unfold p_internal, p_in_io, p_in_timer, enabled in Qp. cbn [step] in Qp. unfold pstep in Qp.
  rewrite E in Qp. cbn in Qp. destruct (negb k && negb f); discriminate.
Qed.

Lemma r_internal_with_p s pc : r_internal cfg (with_p s pc) = r_internal cfg s.
Proof.
  unfold r_internal, r_in_io, r_in_timer, enabled. cbn [step]. unfold rstep. cbn [s_r with_p].
  destruct (s_r s) as [| |w]; cbn; try reflexivity.
  - destruct (is_closed _ _); reflexivity.
  - unfold wstep. destruct w; cbn; try reflexivity.
    + destruct (s_store s); reflexivity.
    + destruct (get_persistent_state _) as [[p' st]|]; reflexivity.
    + destruct (notify_state_written _); reflexivity.
Qed.

Lemma series_eq m op res x1 x2 : mid1 cfg m op res x2 x1 -> qtraj x1 x2 ->
  ms_new_sync m (enc_obs res x2) && negb (ms_retry m op (enc_obs res x2)) = entered x1 x2.
Proof.
  intros [_ _ _ _ M5 M6 _] [_ _ _ _ Q5 _ _ Q8 _]. rewrite new_sync_eq. unfold entered.
  destruct (is_syncing (x_sys x2)) eqn:E2; [|rewrite andb_false_r; reflexivity]. cbn [andb]. rewrite andb_true_r.
  destruct (is_syncing (x_sys x1)) eqn:E1; cbn [negb].
  - destruct Q5 as [Q5 _]. destruct M6 as [M6|[M6 [_ M6']]].
    + assert ((m_nsy m <? x_nsy x2) = false) as -> by (apply Nat.ltb_ge; lia). reflexivity.
    + rewrite M6'. apply andb_false_r.
  - destruct M6 as [M6|[_ [M6 _]]]; [|congruence]. rewrite ?E1, ?E2 in Q5. cbv iota in Q5.
    assert ((m_nsy m <? x_nsy x2) = true) as -> by (apply Nat.ltb_lt; lia). cbn [andb].
    destruct (ms_retry m op (enc_obs res x2)) eqn:Er; [exfalso|reflexivity].
    destruct (M5 eq_refl) as [Hs|Hs]; [|congruence].
    unfold is_syncing in E2. rewrite (Q8 Hs) in E2. unfold is_sleep in Hs. destruct (s_p (x_sys x1)); discriminate.
Qed.

Lemma no_entry_fin m x x1 f rw x2 : rel1 m x -> good (x_sys x1) ->
  s_p (x_sys x1) = s_p (x_sys x) -> s_cancel (x_sys x1) = s_cancel (x_sys x) ->
  quiesce cfg f rw x1 = Ok x2 -> entered x1 x2 = false.
Proof.
  intros R G1 Ep Ec Hq. pose proof (quiesce_traj _ _ _ _ _ _ _ _ _ G1 Hq) as Q.
  pose proof (quiesce_good _ _ _ _ _ _ _ _ _ G1 Hq) as G2.
  unfold entered. destruct (is_syncing (x_sys x1)) eqn:E1; [reflexivity|]. cbn [negb andb].
  destruct (is_syncing (x_sys x2)) eqn:E2; [exfalso|reflexivity].
  unfold is_syncing in E2. destruct (s_p (x_sys x2)) as [| | | | |k f0| | | |] eqn:Ep2; try discriminate.
  destruct k.
  - destruct (q_keep _ _ Q) as [H|H]; [right; eauto| |].
    + rewrite Ep in H. eapply quiet_not_notify; [apply (r1_quiet _ _ _ _ _ _ _ R)|exact H].
    + unfold is_syncing in E1. rewrite H, Ep2 in E1. discriminate.
  - destruct G2 as [_ [_ K]]. unfold keepc in K. rewrite Ep2 in K.
    rewrite (q_cancel _ _ Q), Ec in K.
    destruct (quiet_cancel_nos _ (good_inv1 _ _ _ _ _ _ (r1_good _ _ _ _ _ _ _ R)) (r1_quiet _ _ _ _ _ _ _ R) K) as [H|H].
    + rewrite <- Ep in H. pose proof (nos_traj _ _ _ _ G1 H Hq) as H2. rewrite Ep2 in H2. discriminate.
    + unfold is_syncing in H, E1. rewrite <- Ep in H. congruence.
Qed.

(** after a successful DataSyncer call the put loop's next step is NotifySyncCompleted *)
Lemma syncret_cases m x op x1 res xo : rel1 m x -> tri cfg op x x1 res ->
  (ms_sync_ok op (enc_obs res xo) = true /\ exists k f, x_sys x1 = with_p (x_sys x) (PSyncRet k f) /\ x_nwr x1 = x_nwr x
                                                      /\ same_counters x x1 /\ tag op = 5%Z) \/
  (ms_sync_ok op (enc_obs res xo) = false /\ forall k f, s_p (x_sys x1) <> PSyncRet k f).
Proof.
  intros R T. pose proof (r1_good _ _ _ _ _ _ _ R) as G. pose proof (good_inv1 _ _ _ _ _ _ G) as II.
  pose proof (r1_quiet _ _ _ _ _ _ _ R) as Qx.
  unfold ms_sync_ok, ms_sync_done, ms_hit. rewrite obs_nth0.
  destruct T as [[-> Hn]|[[e [He [Hs [En1 En2]]]]|[t [a [[Hres [Hat Hth]] Ht]]]]].
  - right. split; [|intros k f; apply quiet_not_syncret; exact Qx].
    destruct Hn as [Hn1 _]. destruct (Z.eqb_spec (tag op) 5) as [E|E]; [rewrite Hn1 by auto|]; reflexivity.
  - right. destruct (env_ok_code _ _ _ _ He) as [Hne [_ [_ [_ [Hc5 _]]]]].
    destruct (env_frame cfg _ _ _ Hne Hs) as [_ Ep].
    split; [destruct (Z.eqb_spec (tag op) 5); [contradiction|reflexivity]|].
    intros k f. rewrite Ep. apply quiet_not_syncret; exact Qx.
  - destruct (tstep_ok _ _ _ _ _ Ht) as [Hs [Hcnt [Hwr _]]].
    destruct (thr_act_none _ _ _ _ _ (conj Hres (conj Hat Hth))) as [_ Hng]. rewrite Hng in Hwr.
    destruct t; cbn [step] in Hs.
    + right. pose proof (rstep_frame _ _ _ _ II Hs) as Ep. split.
      * destruct Hth as [[E [Et _]]|[[E _]|[E _]]]; [discriminate Et|rewrite E; reflexivity|rewrite E; reflexivity].
      * intros k f. rewrite Ep. apply quiet_not_syncret; exact Qx.
    + destruct (pstep_external _ _ _ _ _ _ II (conj Hres (conj Hat Hth)) Hs) as [PE _]. rewrite Hres.
      remember (s_p (x_sys x)) as p eqn:Ep.
      destruct PE as [k f|k f dl|k st|k st dl|dl b Hc|dl b|k f dl b|k dl b]; cbn.
      2-8: right; split; [reflexivity|]; intros k' f'; discriminate.
      left. split; [reflexivity|]. exists k, f.
      destruct Hth as [[_ [_ [_ Hok]]]|[[E _]|[E _]]]; try discriminate E.
      unfold pstep in Hs. rewrite <- Ep, Hok in Hs. inversion Hs. splits; auto.
Qed.

Lemma F2_conj {A B} (R R' : A -> B -> Prop) l1 l2 : Forall2 R l1 l2 -> Forall2 R' l1 l2 ->
  Forall2 (fun a b => R a b /\ R' a b) l1 l2.
Proof. intros F. induction F; intros F'; inversion F'; subst; constructor; auto. Qed.

Lemma zm_of_cov sb lo ss blks popped upl acks gs p ups xb na :
  cov sb lo ss blks popped upl acks gs p ups xb na ->
  Forall2 (fun k g => o_block (g_o g) < totalReleased p -> zmem (k_loc k) popped = true) acks gs.
Proof.
  intros [C1 C2 C3 C4 C5 C6 C7 C8]. eapply F2_impl2; [|exact C8]. intros k g [H1 _] Hlt.
  apply zmem_in. rewrite <- C2 in Hlt. rewrite nth_error_app1 in H1 by exact Hlt. eapply nth_error_In; eauto.
Qed.

(** the monitor's record of the state write in flight *)
Lemma nc_eq m op res x2 nw0 cur_c :
  let o := enc_obs res x2 in
  inv3 (x_sys x2) -> nw0 = m_nwr m ->
  ((x_nwr x2 = nw0 /\ cur_c = ms_cur0 m op o) \/
   (x_nwr x2 = S nw0 /\ exists t st, written_state (x_sys x2) t = Some st
      /\ cur_c = Some (mkPendw (enc_st st) (ms_last_ok m op o) (ms_popped m op o)))) ->
  ms_nc m op o (ms_popped m op o) = (x_nwr x2, cur_c).
Proof.
  intros o I3 -> H. subst o. unfold ms_nc.
  destruct H as [[E1 E2]|[E1 [t [st [Hw E2]]]]].
  - assert (Hcase : (exists t st, written_state (x_sys x2) t = Some st) \/ (forall t st, written_state (x_sys x2) t <> Some st)).
    { destruct (written_state (x_sys x2) TR) as [st|] eqn:Er; [left; eauto|].
      destruct (written_state (x_sys x2) TP) as [st|] eqn:Ep; [left; eauto|].
      right. intros t st. destruct t; congruence. }
    destruct Hcase as [[t [st Hw]]|Hno].
    + destruct (wobs_writer res x2 t st I3 Hw) as [w [Hw1 [Hw2 _]]]. rewrite Hw1, Hw2.
      assert ((m_nwr m <? x_nwr x2) = false) as -> by (apply Nat.ltb_ge; lia). congruence.
    + rewrite (wobs_none res x2 Hno). congruence.
  - destruct (wobs_writer res x2 t st I3 Hw) as [w [Hw1 [Hw2 Hw3]]]. rewrite Hw1, Hw2, Hw3.
    assert ((m_nwr m <? x_nwr x2) = true) as -> by (apply Nat.ltb_lt; lia). congruence.
Qed.

Lemma finish2 rem m op res xs x2 gsS Etot1 ssX f rw :
  let o := enc_obs res x2 in
  let i := m_step m in
  let m' := mon_step (c_interval cfg) m op o in
  rel1 m' x2 -> good (x_sys xs) ->
  covx (S i) (ms_last_ok m op o) ssX (fst (ms_bp m op o)) (ms_popped m op o) (ms_upl m op o) (ms_acks m op o) gsS xs ->
  (forall k f0, s_p (x_sys xs) <> PSyncRet k f0) ->
  Wp (ms_acks m op o) Etot1 (S i) (x_sys xs) (ms_cur0 m op o) ->
  quiesce cfg f rw xs = Ok x2 ->
  Forall2 (fun k g => g_lv (lift (entered xs x2) g) = lvl (ms_last_ok m op o) (ms_series m op o) k) (ms_acks m op o) gsS ->
  Etot1 + length (epochSeeds (s_pbl (x_sys xs))) + rem < N.to_nat M32 ->
  x_nwr xs = m_nwr m ->
  ms_series m op o <= S i -> (forall j, ms_last_ok m op o = Some j -> j <= ms_series m op o) ->
  rel2 rem m' x2.
Proof.
  intros o i m' R1 Gs C Hnret W Hq Hlv Hb Hnw Hs1 Hs2.
  destruct (reachable_inv_all _ _ _ _ _ _ (proj1 (r1_good _ _ _ _ _ _ _ R1))) as [_ [_ [I3 _]]].
  assert (HB : length (epochSeeds (s_pbl (x_sys xs))) < N.to_nat M32) by lia.
  assert (HL : Forall2 (fun k0 g => g_lv g = 2 <-> should (ms_last_ok m op o) k0 = true) (ms_acks m op o) gsS).
  { eapply F2_impl2; [|exact (cv_acks2 _ _ _ _ _ _ _ _ _ _ _ _ C)]. intros k0 g [_ [_ H3]]. rewrite H3. apply lvl2_iff. }
  assert (HJ : forall j0, ms_last_ok m op o = Some j0 -> j0 <= S i) by (intros j0 E; specialize (Hs2 j0 E); lia).
  assert (CT0 : ctraj (ms_acks m op o) gsS (ms_cur0 m op o) (ms_last_ok m op o) (ms_popped m op o) Etot1 (S i) xs xs).
  { apply ctraj_refl; [exact (cv_acks _ _ _ _ _ _ _ _ _ _ _ _ C)|exact Hnret|exact W]. }
  pose proof (quiesce_ctraj cfg alloc oldest init t0 _ _ _ _ _ _ _ xs HB (zm_of_cov _ _ _ _ _ _ _ _ _ _ _ _ C) HL HJ
                            f rw x2 Gs CT0 Hq) as CT.
  destruct CT as [T1 T2 T3 [cur_c [T4 T4']] T5 T6 T7 T8 [T9a [T9b T9c]]].
  destruct C as [C1 C2 C3 C4 C5 C6 C7 C8].
  assert (Hnc : ms_nc m op o (ms_popped m op o) = (x_nwr x2, cur_c)).
  { apply (nc_eq m op res x2 (x_nwr xs) cur_c I3 Hnw). exact T4'. }
  constructor.
  - exact R1.
  - exists (map (lift (entered xs x2)) gsS). unfold m'. rewrite mon_step_eq.
    cbn [m_step m_last_ok_start m_series_start m_blocks m_popped m_upl m_acks].
    unfold covx. rewrite T8, T9c, T9a. constructor; auto.
    + rewrite T5. exact C1.
    + rewrite T7. exact C2.
    + apply F2_map_r. eapply F2_impl2; [|exact (F2_conj _ _ _ _ C8 Hlv)].
      intros k g [[H1 [H2 _]] H3]. splits; auto. destruct (entered xs x2); exact H1.
  - unfold m'. rewrite mon_step_eq. cbn [m_step m_last_ok_start m_series_start]. auto.
  - unfold m'. rewrite mon_step_eq. cbn [m_nwr]. fold o. rewrite Hnc. reflexivity.
  - exists Etot1. unfold m'. rewrite mon_step_eq. cbn [m_step m_acks m_cur]. fold o. rewrite Hnc. cbn [snd].
    split; [rewrite T6; exact Hb|exact T4].
Qed.

Lemma F2_impl_in {A B} (R R' : A -> B -> Prop) l1 l2 :
  (forall a b, In a l1 -> R a b -> R' a b) -> Forall2 R l1 l2 -> Forall2 R' l1 l2.
Proof.
  intros H F. induction F as [|a b l l' Hab F IH]; constructor.
  - apply H; [left; reflexivity|exact Hab].
  - apply IH. intros a0 b0 Hi. apply H. right. exact Hi.
Qed.

Lemma not_syncing_nos p : nos p = true -> match p with PSyncing _ _ => true | _ => false end = false.
Proof. destruct p; try reflexivity. discriminate. Qed.

Lemma rel2_step rem m x op rw x1 res x2 :
  rel2 (S rem) m x -> tri cfg op x x1 res -> do_op cfg op x = Ok (x1, res) -> quiesce cfg 64 rw x1 = Ok x2 ->
  rel2 rem (mon_step (c_interval cfg) m op (enc_obs res x2)) x2 /\ ms_v46 m op (enc_obs res x2) = [].
Proof.
  intros R2 T Hd Hq. pose proof R2 as [R [gs0 C0] [S1 S2] Hnwr0 _].
  set (o := enc_obs res x2).
  destruct (rel1_step _ _ _ _ _ m x op rw x1 res x2 R T Hq) as [R1' _].
  destruct (rel1_mid _ _ _ _ _ m x op x1 res x2 R T) as [G1 M].
  destruct (cov_op rem m x op x1 res x2 R2 T Hd) as [gs1 [Etot1 [C [Hb [W [Hnw [Hv46 Hfresh]]]]]]].
  fold o in C, Hb, W, Hv46, Hfresh.
  split; [|exact Hv46].
  pose proof (quiesce_traj _ _ _ _ _ _ _ _ _ G1 Hq) as Q.
  pose proof (series_eq m op res x1 x2 M Q) as Hser. fold o in Hser.
  pose proof (good_inv1 _ _ _ _ _ _ G1) as II1.
  destruct (reachable_linv _ _ _ _ _ _ (proj1 G1)) as [_ LL1].
  assert (Ess : ms_series m op o = if entered x1 x2 then m_step m else m_series_start m).
  { unfold ms_series. rewrite Hser. reflexivity. }
  destruct (syncret_cases m x op x1 res x2 R T) as [[Hok [k [f [Ex1 [Enw1 [Ecnt E5]]]]]]|[Hok Hnret]]; fold o in Hok.
  - (* NotifySyncCompleted comes first *)
    assert (Elo : ms_last_ok m op o = Some (m_series_start m)) by (unfold ms_last_ok; rewrite Hok; reflexivity).
    assert (Ep1 : s_p (x_sys x1) = PSyncRet k f) by (rewrite Ex1; reflexivity).
    assert (Hold : forall k0, In k0 (ms_acks m op o) -> k_step k0 < m_step m).
    { destruct Hfresh as [H|[_ [_ H]]]; [exact H|lia]. }
    assert (Hri : r_internal cfg (x_sys x1) = false).
    { rewrite Ex1, r_internal_with_p. apply (r1_quiet _ _ _ _ _ _ _ R). }
    assert (Hpi : p_internal cfg (x_sys x1) = true).
    { unfold p_internal, p_in_io, p_in_timer, enabled. cbn [step]. unfold pstep. rewrite Ep1. cbn.
      destruct (negb k && negb f); reflexivity. }
    assert (Hpick : pick_of cfg rw (x_sys x1) = Some TP).
    { unfold pick_of. rewrite Hri, Hpi. reflexivity. }
    change 64 with (S 63) in Hq. rewrite quiesce_S, Hpick in Hq.
    destruct (tstep cfg TP internal_ans x1) as [[x1'|]|] eqn:Et.
    2:{ exfalso. exact (tstep_nopanic cfg alloc oldest init t0 TP internal_ans x1 G1 Et). }
    2:{ exfalso. unfold tstep in Et. pose proof (internal_enabled cfg (x_sys x1) TP Hpi) as Hen.
        destruct (step cfg (x_sys x1) (EStep TP internal_ans)) as [[s'|]|]; try discriminate. congruence. }
    destruct (tstep_ok _ _ _ _ _ Et) as [Hs' [[Ec1 [Ec2 Ec3]] [Hwr' _]]].
    assert (Hwr1 : x_nwr x1' = x_nwr x1).
    { rewrite Hwr'. unfold at_getstate. rewrite Ep1. reflexivity. }
    pose proof (step_good _ _ _ _ _ _ _ _ G1 Hs') as G1'.
    pose proof (step_act _ _ _ _ Hs') as Ha. cbn [act_of] in Ha. rewrite Ep1 in Ha.
    set (b := negb k && negb f) in *.
    pose proof (int_fields _ _ _ Ha) as [Foffs Fseeds]. cbn [step] in Hs'.
    destruct (pstep_shape _ _ _ _ II1 Hs') as [_ [_ [Sh _]]]. rewrite Ep1 in Sh.
    pose proof (internal_act_tr cfg _ TP _ _ Hs') as Ftr.
    pose proof (thr_uploads cfg _ TP _ _ II1 Hs') as Fup.
    set (gsS := map (g_next (ASyncDone b) (s_pbl (x_sys x1))) gs1).
    assert (Hsub : forall t st, written_state (x_sys x1') t = Some st -> written_state (x_sys x1) t = Some st).
    { apply (written_sub cfg _ TP _ _ II1 Hs'). unfold at_getstate. rewrite Ep1. reflexivity. }
    destruct C as [C1 C2 C3 C4 C5 C6 C7 C8].
    assert (CS : covx (S (m_step m)) (ms_last_ok m op o) (if b then m_step m else m_series_start m)
                      (fst (ms_bp m op o)) (ms_popped m op o) (ms_upl m op o) (ms_acks m op o) gsS x1').
    { rewrite Elo. unfold covx. rewrite Fup, Ec3, Ec1. constructor; auto.
      - rewrite Foffs. exact C1.
      - rewrite Ftr. exact C2.
      - apply (F2_next _ _ _ _ _ (proj1 II1) LL1 Ha C7).
      - apply F2_map_r. eapply F2_impl_in; [|exact C8]. intros k0 g Hin [H1 [H2 H3]].
        unfold g_next. cbn [g_o g_lv]. splits; auto. rewrite H3. apply lvl_done; auto. }
    assert (Hnos : b = false -> nos (s_p (x_sys x1')) = true).
    { intros Hbf. destruct Sh as [[-> [-> _]]|[_ ->]]; [discriminate Hbf|reflexivity]. }
    assert (Hent' : entered x1' x2 = false).
    { unfold entered. destruct Sh as [[_ [_ Sh]]|[Hkf Sh]].
      - unfold is_syncing. rewrite Sh. reflexivity.
      - assert (nos (s_p (x_sys x1')) = true) as Hn by (rewrite Sh; reflexivity).
        pose proof (nos_traj _ _ _ _ G1' Hn Hq) as Hn2. unfold is_syncing. rewrite (not_syncing_nos _ Hn2). apply andb_false_r. }
    assert (Hent : entered x1 x2 = b).
    { unfold entered, is_syncing. rewrite Ep1. cbn [negb andb]. destruct Sh as [[-> [-> Sh]]|[Hkf Sh]].
      - pose proof (quiesce_traj _ _ _ _ _ _ _ _ _ G1' Hq) as Q'. pose proof (q_nsy _ _ Q') as Q5.
        unfold is_syncing in Q5. rewrite Sh in Q5. destruct Q5 as [_ Q5]. rewrite Q5. reflexivity.
      - assert (nos (s_p (x_sys x1')) = true) as Hn by (rewrite Sh; reflexivity).
        pose proof (nos_traj _ _ _ _ G1' Hn Hq) as Hn2. rewrite (not_syncing_nos _ Hn2).
        unfold b. destruct Hkf as [-> | ->]; try destruct k; try destruct f; reflexivity. }
    apply (finish2 rem m op res x1' x2 gsS Etot1 _ 63 rw R1' G1' CS).
    + intros k' f' E. destruct Sh as [[_ [_ Sh]]|[_ Sh]]; rewrite Sh in E; discriminate.
    + apply (Wp_act _ Etot1 _ (S (m_step m)) _ (x_sys x1) _ _ (ASyncDone b));
        [lia|cbn [popc]; lia|exact (proj1 II1)|exact Ha|exact Hsub|exact W].
    + exact Hq.
    + rewrite Hent'. fold o. rewrite Ess, Hent. eapply F2_impl2; [|exact (cv_acks2 _ _ _ _ _ _ _ _ _ _ _ _ CS)].
      intros k0 g [_ [_ H3]]. exact H3.
    + rewrite Fseeds. exact Hb.
    + congruence.
    + fold o. rewrite Ess. destruct (entered x1 x2); lia.
    + fold o. rewrite Elo, Ess. intros j E. inversion E; subst. destruct (entered x1 x2); lia.
  - (* no sync completion in this operation *)
    assert (Elo : ms_last_ok m op o = m_last_ok_start m) by (unfold ms_last_ok; rewrite Hok; reflexivity).
    rewrite <- Elo in C.
    apply (finish2 rem m op res x1 x2 gs1 Etot1 _ 64 rw R1' G1 C Hnret W Hq).
    + fold o. rewrite Ess. destruct (entered x1 x2) eqn:Ee.
      * assert (Hold : forall k0, In k0 (ms_acks m op o) -> k_step k0 < m_step m).
        { destruct Hfresh as [H|[Hp [Hc _]]]; [exact H|exfalso].
          rewrite (no_entry_fin m x x1 64 rw x2 R G1 Hp Hc Hq) in Ee. discriminate. }
        eapply F2_impl_in; [|exact (cv_acks2 _ _ _ _ _ _ _ _ _ _ _ _ C)]. intros k0 g Hin [_ [_ H3]].
        cbn [lift g_lv]. rewrite H3. symmetry. apply lvl_enter. apply Hold. exact Hin.
      * eapply F2_impl2; [|exact (cv_acks2 _ _ _ _ _ _ _ _ _ _ _ _ C)]. intros k0 g [_ [_ H3]]. exact H3.
    + exact Hb.
    + exact Hnw.
    + fold o. rewrite Ess. destruct (entered x1 x2); lia.
    + fold o. rewrite Elo, Ess. intros j E. specialize (S2 j E). destruct (entered x1 x2); lia.
Qed.

End C46.
