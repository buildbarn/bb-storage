(** C16C: the monitor of the clone sub-check is silent on the clone model.
    Everything is derived from C16's [mon16_silent_on_model_fuel] (the monitor
    of the single consumer is silent on [run16]): a handle's view differs from
    the single consumer's observation only in the offset and the bytes, which
    are the single consumer's bytes from that offset. *)
From Coq Require Import List ZArith NArith Bool Lia.
From BBS Require Import Common.Sx Buffer.Source Buffer.Validate Buffer.Convert Buffer.ErrHandler
  Buffer.StreamProofs Buffer.ErrHandlerProofs Buffer.C09FullMonitor Buffer.EHFullMon3 Buffer.EHFullMonS Buffer.EHFuelMon
  Run.R09 Run.R16 Run.R16C.
Import ListNotations.
Open Scope Z_scope.

Lemma dec_case16_set_meth inner m :
  dec_case16 (set_meth inner m) =
  let c := dec_case16 inner in
  mkCase16 (q_report c) (q_cfg c) (q_b0 c) (q_anss c) (dec_meth m) (q_tbl c).
Proof. reflexivity. Qed.

Lemma prefix_dropN k D st : bytes_prefix D st = true -> bytes_prefix (dropN k D) (dropN k st) = true.
Proof.
  intros Hp. destruct (bytes_prefix_true _ _ Hp) as (rest & ->).
  destruct (N.le_gt_cases k (lenN D)) as [Hk|Hk].
  - rewrite dropN_app by exact Hk. apply bytes_prefix_app.
  - rewrite (dropN_all k D) by lia. reflexivity.
Qed.

(** the bytes a handle shows: the single consumer's bytes from the handle's
    offset, or nothing (a failed ToByteSlice) when the stream did not complete *)
Definition shows (off : Z) (D : bytes) (E : Z) (D' : bytes) : Prop :=
  D' = dropN (Z.to_N off) D \/ (D' = [] /\ E <> -1).

(** The transfer: C16's monitor silent on the single consumer's observation
    => silent on every handle's view of it. *)
Lemma mon16_view inner c0 D E x cbs onerrs dones y closes off c D' :
  mon16 (set_meth inner (L [A 3; A 0; A c0; A 0])) (L [of_Ns D; A E; x; cbs; onerrs; dones; y; closes]) = [] ->
  0 <= off -> shows off D E D' ->
  mon16 (set_meth inner (L [A 3; A off; A c; A 0])) (L [of_Ns D'; A E; L []; cbs; onerrs; dones; L []; closes]) = [].
Proof.
  intros H Hoff Hsh. unfold shows in Hsh. unfold mon16 in *. rewrite dec_case16_set_meth in *.
  cbv zeta in *. cbn [q_report q_cfg q_b0 q_anss q_meth q_tbl dec_meth] in *.
  destruct (piece_of (q_b0 (dec_case16 inner)) 0) as [p0 t0].
  destruct (stitch_stack p0 t0 (q_anss (dec_case16 inner))) as [[st term] offss].
  unfold obs_dones, obs_closes, obs_offered in *.
  cbn [sx_nth sx_list nth is_discard completes expected m_off sx_Z] in *.
  rewrite !dec_bytes_of_Ns in *.
  apply app_eq_nil in H as (H1 & H). apply app_eq_nil in H as (H8 & H).
  apply app_eq_nil in H as (H9 & H). apply app_eq_nil in H as (H10 & H).
  apply app_eq_nil in H as (H2 & H). apply app_eq_nil in H as (H3 & H).
  apply app_eq_nil in H as (H4 & H). apply app_eq_nil in H as (H7 & H5).
  rewrite H1, H8, H9, H10, H2, H4. cbn [app].
  change (Z.to_N 0) with 0%N in *. rewrite dropN_0 in *.
  set (k := Z.to_N off) in *.
  set (trusted := all_bytes_trusted _ _ _) in *. clearbody trusted. destruct trusted.
  2:{ rewrite !andb_false_r. cbn [andb app]. reflexivity. }
  rewrite !andb_true_r in *. cbn [andb] in *.
  assert (Hpre : bytes_prefix D st = true).
  { destruct (bytes_prefix D st); [reflexivity|discriminate H7]. }
  assert (Hpre' : bytes_prefix D' (dropN k st) = true).
  { destruct Hsh as [->|(-> & _)]; [apply prefix_dropN; exact Hpre|reflexivity]. }
  rewrite Hpre'. cbn [negb app].
  set (stv := (err_eqb term EEof && _)%bool) in *. clearbody stv.
  destruct (E =? -1) eqn:HE.
  - (* the stream completed *)
    destruct Hsh as [->|(_ & Hne)]; [|apply Z.eqb_eq in HE; contradiction].
    destruct stv.
    + cbn [andb negb] in *.
      destruct (bytes_eqb D st) eqn:Heq; [|discriminate H3].
      apply bytes_eqb_eq in Heq. subst D. rewrite bytes_eqb_refl. reflexivity.
    + cbn [andb negb] in H3. discriminate H3.
  - cbn [andb app].
    destruct stv; [reflexivity|]. cbn [negb andb] in *.
    destruct (is_nil D') eqn:Hn; [reflexivity|]. cbn [negb andb].
    destruct Hsh as [->|(-> & _)]; [|discriminate Hn].
    destruct D as [|d0 D0]; [destruct k; discriminate Hn|].
    cbn [is_nil negb andb] in H5.
    destruct (0 + Z.of_N (lenN (d0 :: D0)) <? Z.of_N (g_size (q_cfg (dec_case16 inner)))) eqn:Hlt; [|discriminate H5].
    apply Z.ltb_lt in Hlt.
    assert (Hk : (k < lenN (d0 :: D0))%N).
    { destruct (N.lt_ge_cases k (lenN (d0 :: D0))) as [Hk|Hk]; [exact Hk|].
      rewrite (dropN_all k (d0 :: D0)) in Hn by exact Hk. discriminate Hn. }
    rewrite lenN_dropN.
    assert (Hlt' : off + Z.of_N (lenN (d0 :: D0) - k) <? Z.of_N (g_size (q_cfg (dec_case16 inner))) = true).
    { apply Z.ltb_lt. subst k. rewrite N2Z.inj_sub by lia. rewrite Z2N.id by exact Hoff. lia. }
    rewrite Hlt'. reflexivity.
Qed.

(** the same for the Discard view: only clauses 1, 8, 9, 10, which do not
    look at the consumer's result *)
Lemma mon16_discard_view inner D E x cbs onerrs dones y closes :
  mon16 (set_meth inner (L [A 6])) (L [D; E; x; cbs; onerrs; dones; y; closes]) = [] ->
  mon16 (set_meth inner (L [A 6])) (L [L []; A 0; L []; cbs; onerrs; dones; L []; closes]) = [].
Proof. intros H. exact H. Qed.

(** the handles of the harness: ToByteSlice, IntoWriter, ToChunkReader at an
    offset >= 0, ToReader, or Discard *)
Definition handle_ok (m : meth) : bool :=
  match m with
  | MReadAt _ _ | MCloneCopy _ => false
  | MToChunkReader off _ _ => 0 <=? off
  | _ => true
  end.

(** the domain: C16's domain for the single consumer; well-formed handles;
    the single consumer's stream does not end with "no error" (it ends with
    io.EOF or an error; C16's domain asks the same of error codes) *)
Definition dom16C (inp : sx) : Prop :=
  dom16F (base_inp inp) /\
  forallb handle_ok (hmeths inp) = true /\
  (forallb is_discard (hmeths inp) = false -> sx_Z (sx_nth (run16 (base_inp inp)) 1) <> 0).

Lemma handle_view m D E :
  handle_ok m = true -> is_discard m = false -> E <> 0 ->
  exists D' c,
    res_bytes (handle_res m D E) = of_Ns D' /\
    view_code m (res_code (handle_res m D E)) = E /\
    view_meth m = L [A 3; A (m_off m); A c; A 0] /\
    0 <= m_off m /\
    shows (m_off m) D E D' /\
    (hidden m (res_code (handle_res m D E)) = true \/ D' = dropN (Z.to_N (m_off m)) D).
Proof.
  intros Hok Hnd HE. unfold shows.
  destruct m as [max| |plen off|off c k|caps k|max|]; try discriminate Hok; try discriminate Hnd;
    cbn [handle_res view_meth m_off hidden view_code].
  - (* ToByteSlice *)
    destruct (E =? -1) eqn:H1.
    + apply Z.eqb_eq in H1. subst E. exists D, 1. cbn. rewrite dropN_0. repeat split; auto; lia.
    + apply Z.eqb_neq in H1. exists [], 1. unfold res_code, res_bytes. cbn [sx_nth sx_list nth sx_Z].
      destruct (E =? 0) eqn:H0; [apply Z.eqb_eq in H0; contradiction|].
      cbn [negb]. repeat split; auto; lia.
  - (* IntoWriter *)
    exists D, 1. unfold res_code, res_bytes. cbn [sx_nth sx_list nth sx_Z].
    change (Z.to_N 0) with 0%N. rewrite dropN_0.
    destruct (E =? -1) eqn:H1.
    + apply Z.eqb_eq in H1. subst E. cbn. repeat split; auto; lia.
    + destruct (E =? 0) eqn:H0; [apply Z.eqb_eq in H0; contradiction|]. repeat split; auto; lia.
  - (* ToChunkReader *)
    cbn [handle_ok] in Hok. apply Z.leb_le in Hok.
    exists (dropN (Z.to_N off) D), (Z.of_N c). unfold res_code, res_bytes. cbn [sx_nth sx_list nth sx_Z].
    repeat split; auto.
  - (* ToReader *)
    exists D, 1. unfold res_code, res_bytes. cbn [sx_nth sx_list nth sx_Z].
    change (Z.to_N 0) with 0%N. rewrite dropN_0. repeat split; auto; lia.
Qed.

Lemma discard_handle inner obs m D E :
  is_discard m = true -> mon_handle inner obs m (handle_res m D E) = [].
Proof. destruct m; try discriminate. reflexivity. Qed.

Lemma mon_handles_model inner obs D E : forall ms,
  (forall m, In m ms -> mon_handle inner obs m (handle_res m D E) = []) ->
  mon_handles inner obs ms (map (fun m => handle_res m D E) ms) = [].
Proof.
  induction ms as [|m ms IH]; intros H; [reflexivity|].
  cbn [map mon_handles]. rewrite (H m (or_introl eq_refl)). cbn [app]. apply IH.
  intros m' Hin. apply H. right. exact Hin.
Qed.

Section Agreement.
  Variables (D : bytes) (E : Z).
  Hypothesis HE : E <> 0.
  Let hr := fun m => handle_res m D E.

  Lemma first_code_model : forall ms, forallb handle_ok ms = true ->
    first_code ms (map hr ms) = None \/ first_code ms (map hr ms) = Some E.
  Proof.
    induction ms as [|m ms IH]; intros Hok; [left; reflexivity|].
    cbn [forallb] in Hok. apply andb_true_iff in Hok as (Hm & Hok).
    cbn [map first_code]. destruct (is_discard m) eqn:Hd; [exact (IH Hok)|].
    right. destruct (handle_view m D E Hm Hd HE) as (D' & c & _ & Hc & _). unfold hr. rewrite Hc. reflexivity.
  Qed.

  Lemma reference_model : forall ms, forallb handle_ok ms = true ->
    reference ms (map hr ms) = None \/ reference ms (map hr ms) = Some D.
  Proof.
    induction ms as [|m ms IH]; intros Hok; [left; reflexivity|].
    cbn [forallb] in Hok. apply andb_true_iff in Hok as (Hm & Hok).
    cbn [map reference]. destruct (is_discard m) eqn:Hd; cbn [negb andb]; [exact (IH Hok)|].
    destruct (m_off0 m) eqn:H0; cbn [andb]; [|exact (IH Hok)].
    destruct (handle_view m D E Hm Hd HE) as (D' & c & Hb & _ & _ & _ & _ & Hh). unfold hr.
    destruct (hidden m (res_code (handle_res m D E))) eqn:Hhid; cbn [negb]; [exact (IH Hok)|].
    right. destruct Hh as [Hh|Hh]; [discriminate Hh|]. rewrite Hb, dec_bytes_of_Ns, Hh.
    assert (Hz : m_off m = 0).
    { destruct m; try reflexivity; try discriminate Hm. cbn in H0. apply Z.eqb_eq in H0. exact H0. }
    rewrite Hz. change (Z.to_N 0) with 0%N. rewrite dropN_0. reflexivity.
  Qed.

  Lemma agree_model ref : ref = None \/ ref = Some D -> forall ms, forallb handle_ok ms = true ->
    agree_handles E ref ms (map hr ms) = true.
  Proof.
    intros Href. induction ms as [|m ms IH]; intros Hok; [reflexivity|].
    cbn [forallb] in Hok. apply andb_true_iff in Hok as (Hm & Hok).
    cbn [map agree_handles]. rewrite (IH Hok), andb_true_r.
    destruct (is_discard m) eqn:Hd; [reflexivity|]. cbn [orb].
    destruct (handle_view m D E Hm Hd HE) as (D' & c & Hb & Hc & _ & _ & _ & Hh). unfold hr.
    rewrite Hc, Z.eqb_refl. cbn [andb].
    destruct Href as [->| ->]; [reflexivity|].
    destruct Hh as [Hh|Hh]; [rewrite Hh; reflexivity|].
    rewrite Hb, dec_bytes_of_Ns, Hh, bytes_eqb_refl. apply orb_true_r.
  Qed.

  Lemma clause11_model ms : forallb handle_ok ms = true -> clause11 ms (map hr ms) = true.
  Proof.
    intros Hok. unfold clause11.
    destruct (first_code_model ms Hok) as [-> | ->]; [reflexivity|].
    apply agree_model; [apply reference_model|]; exact Hok.
  Qed.
End Agreement.

Lemma clause11_all_discarded D E : forall ms, forallb is_discard ms = true ->
  clause11 ms (map (fun m => handle_res m D E) ms) = true.
Proof.
  intros ms H. unfold clause11.
  assert (Hf : first_code ms (map (fun m => handle_res m D E) ms) = None).
  { induction ms as [|m ms IH]; [reflexivity|]. cbn [forallb] in H. apply andb_true_iff in H as (Hm & H).
    cbn [map first_code]. rewrite Hm. exact (IH H). }
  rewrite Hf. reflexivity.
Qed.

Theorem mon16C_raw_silent_on_model inp : dom16C inp -> mon16C_raw inp (run16C inp) = [].
Proof.
  intros (Hdom & Hok & HE).
  pose proof (mon16_silent_on_model_fuel _ Hdom) as Hmon.
  unfold mon16C_raw, run16C. rewrite run16_out16 in *.
  set (o := out16 (base_inp inp)) in *. set (rep := q_report (dec_case16 (base_inp inp))) in *.
  unfold enc_out16s in *. unfold clone_obs. cbn [sx_nth sx_list nth] in *. rewrite dec_bytes_of_Ns.
  unfold enc_err in *. cbn [sx_Z] in *.
  set (E := match y_err o with ENone => 0 | EEof => -1 | EUnexp => -2 | EFuel => -3 | ECode c => c end) in *.
  set (D := y_data o) in *.
  unfold base_inp in Hmon.
  destruct (forallb is_discard (hmeths inp)) eqn:Hall.
  - (* every handle discarded *)
    unfold base_meth in Hmon. rewrite Hall in Hmon.
    unfold view_obs. cbn [sx_nth sx_list nth].
    rewrite (mon16_discard_view _ _ _ _ _ _ _ _ _ Hmon). cbn [app].
    rewrite mon_handles_model.
    + rewrite clause11_all_discarded by exact Hall. reflexivity.
    + intros m Hin. apply discard_handle. rewrite forallb_forall in Hall. exact (Hall m Hin).
  - unfold base_meth in Hmon. rewrite Hall in Hmon. specialize (HE eq_refl).
    cbn [app]. rewrite mon_handles_model.
    + rewrite clause11_model by assumption. reflexivity.
    + intros m Hin. destruct (is_discard m) eqn:Hd; [apply discard_handle; exact Hd|].
      rewrite forallb_forall in Hok. pose proof (Hok m Hin) as Hm.
      destruct (handle_view m D E Hm Hd HE) as (D' & c & Hb & Hc & Hv & Hoff & Hsh & _).
      unfold mon_handle. rewrite Hd, Hb, Hc, Hv. unfold view_obs. cbn [sx_nth sx_list nth].
      exact (mon16_view _ _ _ _ _ _ _ _ _ _ _ c _ Hmon Hoff Hsh).
Qed.

Theorem mon16C_silent_on_model inp : dom16C inp -> mon16C inp (run16C inp) = [].
Proof. intros H. unfold mon16C. rewrite (mon16C_raw_silent_on_model inp H). reflexivity. Qed.
