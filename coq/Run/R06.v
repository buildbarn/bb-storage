(** C06: sx interface of the key-location index model (decoders, run, monitor, judge).

    input  (0 backend n maxGet maxPut hashInit h0 (key...) (op...))
             backend 0 = in-memory record array, 1 = block-device backed (same model)
             key = list of 32 bytes ; h0 = number of blocks at the start
             op  = (0 ki blk off size) Put | (1 ki) Get | (2) PopFront | (3) PushBack
    obs    ( ((metric deltas of the operation) (get sweep, one entry per key)) ... )
             metric deltas = (ins_n ins_sum upd_n upd_sum ign_n ign_sum tma_n tma_sum tmi gtm)
             sweep entry   = (status blk off size), status 0 NotFound, 1 Found,
                             2 NotFound counted by get_too_many_attempts_total
           | (-1) when the implementation panics (recordsCount = 0).
    input  (1 epoch bfl (key) attempt off size seed seed2 flip)  record codec case, see RecordCodec. *)
From BBS Require Import Common.Sx Generated.Consts Index.Klm Index.KlmFnv Index.RecordCodec.
Open Scope Z_scope.

Definition dec_key (s : sx) : bkey := sx_Ns s.
Definition dec_loc (o : sx) : loc :=
  {| blk := sx_N (sx_nth o 2); off := sx_N (sx_nth o 3); size := sx_N (sx_nth o 4) |}.

Record cfg06 := { c_n : nat; c_maxget : nat; c_maxput : nat; c_init : N; c_h0 : N;
                  c_keys : list bkey; c_ops : list sx }.
Definition dec_cfg (inp : sx) : cfg06 :=
  {| c_n := sx_nat (sx_nth inp 2); c_maxget := sx_nat (sx_nth inp 3);
     c_maxput := sx_nat (sx_nth inp 4); c_init := sx_N (sx_nth inp 5);
     c_h0 := sx_N (sx_nth inp 6); c_keys := map dec_key (sx_list (sx_nth inp 7));
     c_ops := sx_list (sx_nth inp 8) |}.

Definition key_at (c : cfg06) (i : nat) : bkey := nth i (c_keys c) [].

Definition enc_get (g : gres) : sx :=
  match g with
  | GFound l _ => L [A 1; of_N (blk l); of_N (off l); of_N (size l)]
  | GNotFound _ => L [A 0; A 0; A 0; A 0]
  | GTooMany => L [A 2; A 0; A 0; A 0]
  end.

Definition enc_put (o : pres nat) : sx :=
  let z := of_nat in
  match o with
  | PInserted _ it =>          L [A 1; z it; A 0; A 0; A 0; A 0; A 0; A 0; A 0; A 0]
  | PUpdated _ it =>           L [A 0; A 0; A 1; z it; A 0; A 0; A 0; A 0; A 0; A 0]
  | PIgnoredOlder _ it =>      L [A 0; A 0; A 0; A 0; A 1; z it; A 0; A 0; A 0; A 0]
  | PTooManyAttempts _ it _ => L [A 0; A 0; A 0; A 0; A 0; A 0; A 1; z it; A 0; A 0]
  | PTooManyIterations _ _ =>  L [A 0; A 0; A 0; A 0; A 0; A 0; A 0; A 0; A 1; A 0]
  end.
Definition no_metrics (gtm : bool) : sx :=
  L [A 0; A 0; A 0; A 0; A 0; A 0; A 0; A 0; A 0; of_bool gtm].

Section Inst.
  Variable c : cfg06.
  (** keys are represented by their canonical index in the key list; the slot
      function is the real FNV-1a one, tabulated (attempts never exceed
      max 1 maxGet). *)
  Variable tb : list (list nat).   (* = i_tab c, computed once per case *)
  Definition i_slot := tab_slot tb.
  Definition i_get := klm_get nat Nat.eqb i_slot (c_maxget c).
  Definition i_put := klm_put nat Nat.eqb i_slot (c_maxget c) (c_maxput c).
  Definition i_key (i : nat) : nat := canon (c_keys c) i.

  Definition sweep (s : klm nat) : sx :=
    L (map (fun i => enc_get (i_get s (i_key i))) (seq 0 (length (c_keys c)))).

  (** one operation: new state and metric deltas.  A Put outside the block
      window / a PopFront without blocks is not a well-formed case (the harness
      refuses it); the model leaves the state alone. *)
  Definition do_op (s : klm nat) (o : sx) : klm nat * sx :=
    match sx_Z (sx_nth o 0) with
    | 0 => let k := i_key (sx_nat (sx_nth o 1)) in
           let l := dec_loc o in
           if valid (lo s) (hi s) l then let '(s', r) := i_put s k l in (s', enc_put r)
           else (s, no_metrics false)
    | 1 => let k := i_key (sx_nat (sx_nth o 1)) in
           (s, no_metrics (match i_get s k with GTooMany => true | _ => false end))
    | 2 => if (lo s <? hi s)%N then (klm_release nat s, no_metrics false) else (s, no_metrics false)
    | _ => (klm_grow nat s, no_metrics false)
    end.

  Fixpoint run_ops (s : klm nat) (ops : list sx) : list sx :=
    match ops with
    | [] => []
    | o :: ops' => let '(s', m) := do_op s o in L [m; sweep s'] :: run_ops s' ops'
    end.
End Inst.
Definition i_tab (c : cfg06) := slot_table (c_init c) (c_n c) (c_keys c) (c_maxget c).

Definition is_nil {T} (l : list T) : bool := match l with [] => true | _ => false end.

Definition run06_hist (inp : sx) : sx :=
  let c := dec_cfg inp in
  if Nat.eqb (c_n c) 0 && negb (is_nil (c_ops c)) && negb (is_nil (c_keys c)) then L [A (-1)]
  else let tb := i_tab c in L (run_ops c tb (klm_empty nat (c_n c) (c_h0 c)) (c_ops c)).

(** ---- monitor: the property on implementation observations ----
    It uses the history, the block window and the specification-level notions
    [older]/[valid]/[amap_*] only, never [get]/[put]. *)
Definition dec_res (e : sx) : option loc :=
  if Z.eqb (sx_Z (sx_nth e 0)) 1
  then Some {| blk := sx_N (sx_nth e 1); off := sx_N (sx_nth e 2); size := sx_N (sx_nth e 3) |}
  else None.
Definition oloc_eqb (a b : option loc) : bool :=
  match a, b with
  | Some x, Some y => loc_eqb x y
  | None, None => true
  | _, _ => false
  end.

Record mst := { m_lo : N; m_hi : N; m_hist : list (nat * loc);   (* puts so far (key index, loc) *)
                m_prev : list (option loc); m_disc : nat;        (* discards reported so far *)
                m_amap : amap nat }.

Definition stored (h : list (nat * loc)) (ki : nat) (l : loc) : bool :=
  existsb (fun '(k, l') => Nat.eqb k ki && loc_eqb l l') h.

Definition newest_of (p : option loc) (l : loc) : loc :=
  match p with Some l0 => if older l0 l then l else l0 | None => l end.

(** keys given as indices may denote equal byte strings: compare the keys. *)
Definition same_key (c : cfg06) (i j : nat) : bool := bkey_eqb (key_at c i) (key_at c j).

Definition mon_step (c : cfg06) (st : mst) (o : sx) (ob : sx) : mst * list Z :=
  let m := sx_nth ob 0 in
  let res := map dec_res (sx_list (sx_nth ob 1)) in
  let nk := length (c_keys c) in
  let idx := seq 0 nk in
  let prev := m_prev st in
  let kind := sx_Z (sx_nth o 0) in
  let ki := sx_nat (sx_nth o 1) in
  let l := dec_loc o in
  let isput := Z.eqb kind 0 in
  let lo' := if Z.eqb kind 2 then N.succ (m_lo st) else m_lo st in
  let hi' := if Z.eqb kind 3 then N.succ (m_hi st) else m_hi st in
  (* the history identifies keys by content: record the put under every index with equal bytes *)
  let hist' := if isput then map (fun j => (j, l)) (filter (same_key c ki) idx) ++ m_hist st else m_hist st in
  let ndisc := if isput then Z.to_nat (sx_Z (sx_nth m 6) + sx_Z (sx_nth m 8)) else O in
  let am' := if isput then amap_put nat (same_key c) (m_amap st) ki l else m_amap st in
  let get_now i := nth i res None in
  let get_prev i := nth i prev None in
  (* 1 soundness: a returned location was stored for exactly that key and is in an unreleased block *)
  let c1 := negb (forallb (fun i => match get_now i with
                                    | Some x => stored hist' i x && valid lo' hi' x
                                    | None => true end) idx) in
  (* 2 frame: other keys unchanged, except at most one per reported discard *)
  let others := filter (fun i => negb (isput && same_key c ki i)) idx in
  let changed := filter (fun i => negb (oloc_eqb (get_now i) (get_prev i))) others in
  (* keys with equal bytes are one key: count distinct keys among the changed *)
  let changed_distinct :=
    filter (fun i => negb (existsb (fun j => Nat.ltb j i && same_key c i j) changed)) changed in
  let c2 := if isput then Nat.ltb ndisc (length changed_distinct)
            else if Z.eqb kind 2 then false else negb (is_nil changed) in
  (* 3 a victim falls back to an older valid location or to nothing *)
  let c3 := isput && negb (forallb (fun i => match get_prev i, get_now i with
                                             | Some p, Some x => older x p
                                             | None, Some _ => false
                                             | _, None => true end) changed) in
  (* 4 a discarded entry is never newer than the entry being stored *)
  let c4 := isput && negb (forallb (fun i => match get_prev i with
                                             | Some p => negb (older l p)
                                             | None => true end) changed) in
  (* 5 the key stored: newest of (previous, new); with a reported discard it may itself be the victim *)
  let c5 := isput && negb (forallb (fun i =>
                 if same_key c ki i then
                   oloc_eqb (get_now i) (Some (newest_of (get_prev i) l))
                   || (Nat.ltb 0 ndisc && oloc_eqb (get_now i) (get_prev i))
                 else true) idx) in
  (* 6 release removes exactly the entries pointing into released blocks *)
  let c6 := Z.eqb kind 2 && negb (forallb (fun i =>
                 oloc_eqb (get_now i)
                          (match get_prev i with
                           | Some p => if valid lo' hi' p then Some p else None
                           | None => None end)) idx) in
  (* 7 without any reported discard the index is the map key -> newest valid stored location *)
  let disc' := (m_disc st + ndisc)%nat in
  let c7 := Nat.eqb disc' 0 && negb (forallb (fun i => oloc_eqb (get_now i) (amap_get nat lo' hi' am' i)) idx) in
  let fl (b : bool) (z : Z) := if b then [z] else [] in
  ({| m_lo := lo'; m_hi := hi'; m_hist := hist'; m_prev := res; m_disc := disc'; m_amap := am' |},
   fl c1 1 ++ fl c2 2 ++ fl c3 3 ++ fl c4 4 ++ fl c5 5 ++ fl c6 6 ++ fl c7 7).

Fixpoint mon_ops (c : cfg06) (st : mst) (ops obs : list sx) : list Z :=
  match ops, obs with
  | o :: ops', ob :: obs' => let '(st', v) := mon_step c st o ob in v ++ mon_ops c st' ops' obs'
  | _, _ => []
  end.

Fixpoint dedupZ (l : list Z) : list Z :=
  match l with
  | [] => []
  | x :: t => if existsb (Z.eqb x) t then dedupZ t else x :: dedupZ t
  end.

Definition mon06_hist (inp obs : sx) : list Z :=
  let c := dec_cfg inp in
  if sx_eqb obs (L [A (-1)]) then []   (* a panic is judged by agreement with the model *)
  else
  dedupZ (mon_ops c {| m_lo := 0; m_hi := c_h0 c; m_hist := [];
                       m_prev := map (fun _ => None) (c_keys c); m_disc := O;
                       m_amap := amap_empty nat |}
                  (c_ops c) (sx_list obs)).

(** ---- record codec cases ---- *)
Definition run06_codec (inp : sx) : sx := codec_case inp.
Definition mon06_codec (inp obs : sx) : list Z := codec_mon inp obs.

Definition run06 (inp : sx) : sx :=
  if Z.eqb (sx_Z (sx_nth inp 0)) 0 then run06_hist inp else run06_codec inp.
Definition mon06 (inp obs : sx) : list Z :=
  if Z.eqb (sx_Z (sx_nth inp 0)) 0 then mon06_hist inp obs else mon06_codec inp obs.
Definition judge06 : sx -> sx -> sx := judge_det run06 mon06.
