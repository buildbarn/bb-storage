(** C11 — the property monitor [mon11] is silent on the model's own output
    ([mon11_silent_on_model]) and on every observation the judge accepts
    ([mon11_silent_on_allowed]; Put and FindMissing run two goroutines, so
    [agree_ops] accepts any ONE of the model's errors and any order of the
    logged replica calls); hence for the judge "agree" implies "no violation"
    ([judge11_agree_not_violates]).  The per-operation argument is in
    Compose/MonSilentOp.v; this file adds the sx decoding and the induction
    over the operation list ([mon11_one_step] is the single step).  The [kn_*]
    definitions and [keys_hypothesis_needed] are a counterexample: without the
    digest bound of [wf11_keys] the judge accepts an observation on which the
    monitor fires. *)
From BBS Require Import Common.Sx Common.SxFactsMA Compose.Mirrored Compose.MonSilentOp Run.R11.
From Coq Require Import Arith.
Local Open Scope nat_scope.

(** every digest an operation mentions is below the universe size [n]: the
    observation carries the replica contents for digests [0..n) only *)
Definition op_in_rangeb (n : nat) (p : op) : bool := forallb (fun d => d <? n) (op_digests p).
Definition wf11_range (inp : sx) : bool :=
  forallb (fun s => op_in_rangeb (sx_nat (sx_nth inp 0)) (snd (dec_op s))) (sx_list (sx_nth inp 3)).

(** [call_key] (used by [agree_ops] to compare call logs up to order) packs the
    digest into the decimal digits below 100000: the digests of the
    two-goroutine operations must fit *)
Definition key_safe_op (p : op) : bool :=
  bump_op p || forallb (fun d => (Z.of_nat d <? 100000)%Z) (op_digests p).
Definition wf11_keys (inp : sx) : bool :=
  forallb (fun s => key_safe_op (snd (dec_op s))) (sx_list (sx_nth inp 3)).

(** the call log observed for a two-goroutine operation consists of
    well-formed call encodings (replica 0/1, kind 0..3, digest in 0..99999) *)
Definition wf_call_sx (c : sx) : bool :=
  sx_eqb c (enc_call (dec_call c)) && (sx_Z (sx_nth c 2) <? 100000)%Z.
Fixpoint wf11_calls (ops obs : list sx) : bool :=
  match ops, obs with
  | s :: t, ob :: obt =>
      (bump_op (snd (dec_op s)) || forallb wf_call_sx (sx_list (sx_nth ob 5))) && wf11_calls t obt
  | _, _ => true
  end.

Lemma range_step i m d :
  (i <=? d) && (d <? i + S m) = Nat.eqb i d || ((S i <=? d) && (d <? S i + m)).
Proof.
  apply Bool.eq_true_iff_eq.
  rewrite Bool.orb_true_iff, !Bool.andb_true_iff, !Nat.leb_le, !Nat.ltb_lt, Nat.eqb_eq. lia.
Qed.

Lemma lookup_store_of_from (h : nat -> Z) : forall m i d,
  lookup (store_of_from i (map h (seq i m))) d =
  if (i <=? d) && (d <? i + m)
  then (if (h d <? 0)%Z then None else Some (Z.to_nat (h d))) else None.
Proof.
  induction m as [|m IH]; intros i d.
  - cbn [seq map store_of_from lookup]. destruct ((i <=? d) && (d <? i + 0)) eqn:E; [|reflexivity].
    apply andb_prop in E. rewrite Nat.leb_le, Nat.ltb_lt in E. lia.
  - cbn [seq map store_of_from]. rewrite range_step. destruct (h i <? 0)%Z eqn:Hn.
    + rewrite IH. destruct (Nat.eqb_spec i d) as [<-|Ne]; [|reflexivity].
      rewrite Hn. destruct ((S i <=? i) && (i <? S i + m)); reflexivity.
    + cbn [lookup]. destruct (Nat.eqb_spec i d) as [<-|Ne]; [rewrite Hn; reflexivity|apply IH].
Qed.

Lemma lookup_trunc n s d :
  lookup (store_of (enc_store n s)) d = if d <? n then lookup s d else None.
Proof.
  unfold store_of, enc_store, sx_Zs. cbn [sx_list]. rewrite map_map.
  rewrite (lookup_store_of_from
             (fun d => sx_Z (match lookup s d with Some x => of_nat x | None => A (-1) end)) n 0 d).
  cbn [Nat.leb andb Nat.add]. destruct (d <? n); [|reflexivity].
  destruct (lookup s d) as [x|]; cbn [sx_Z of_nat].
  - destruct (Z.ltb_spec (Z.of_nat x) 0); [lia|]. rewrite Nat2Z.id. reflexivity.
  - reflexivity.
Qed.

Lemma eqn_trunc n s : eqn n (store_of (enc_store n s)) s.
Proof. intros d Ld. rewrite lookup_trunc. apply Nat.ltb_lt in Ld. rewrite Ld. reflexivity. Qed.

Lemma dec_enc_call c : dec_call (enc_call c) = c.
Proof.
  destruct c as [[r k] d]. unfold dec_call, enc_call, sx_nth. cbn [sx_list nth sx_Z].
  rewrite sx_nat_of_nat. destruct r, k; reflexivity.
Qed.
Lemma map_dec_enc_call cs : map dec_call (map enc_call cs) = cs.
Proof. rewrite map_map. rewrite (map_ext _ (fun c => c) dec_enc_call). apply map_id. Qed.

Lemma dec_enc_err e :
  mkerr (ecode e) (dec_tag (enc_tag (etag_of e))) (if (enc_origin (eorigin e) =? 2)%Z then RB else RA) = e.
Proof. destruct e as [c t og]. cbn [ecode etag_of eorigin]. destruct t as [|[]|[]|[]], og; reflexivity. Qed.

Lemma dec_obs_enc_res n st rm :
  dec_obs_res (enc_res n st rm) = mkres (okv rm) (firstn 1 (errs rm)) (calls rm).
Proof.
  unfold dec_obs_res, enc_res. destruct (errs rm) as [|e l]; unfold sx_nth; cbn [sx_list nth];
    rewrite sx_nats_of_nats, map_dec_enc_call.
  - reflexivity.
  - change (sx_bool (A 0)) with false. cbn [sx_Z firstn]. rewrite dec_enc_err. reflexivity.
Qed.

Lemma enc_res_stores n st rm :
  sx_nth (enc_res n st rm) 6 = enc_store n (sA st) /\ sx_nth (enc_res n st rm) 7 = enc_store n (sB st).
Proof. unfold enc_res. destruct (errs rm); split; reflexivity. Qed.

Lemma oracle_of_single r0 k0 z c r k d :
  oracle_of [L [A (enc_rid r0); A (enc_kind k0); A z; A c]] r k d =
  if rid_eqb r r0 && kind_eqb k k0 && Nat.eqb d (Z.to_nat z) then Z.max 0 c else 0%Z.
Proof. destruct r, r0, k, k0; reflexivity. Qed.

(** * The relation between a model run and an observation under which the
    monitor is silent *)
Definition obs_ok (n : nat) (p : op) (st' : mstate) (rm : result) (ob : sx) : Prop :=
  obs_rel p rm (dec_obs_res ob)
  /\ eqn n (store_of (sx_nth ob 6)) (sA st') /\ eqn n (store_of (sx_nth ob 7)) (sB st').

Fixpoint rel_ops (n : nat) (st : mstate) (ops obs : list sx) : Prop :=
  match ops, obs with
  | s :: t, ob :: obt =>
      let '(o, p) := dec_op s in
      let '(st', r) := step o st p in
      obs_ok n p st' r ob /\ rel_ops n st' t obt
  | _, _ => True
  end.

Lemma mon_ops_silent n : forall ops obs k pa pb st,
  rel_ops n st ops obs ->
  (forall s, In s ops -> op_in_range n (snd (dec_op s))) ->
  eqn n pa (sA st) -> eqn n pb (sB st) -> k = rnd st ->
  mon_ops n k pa pb ops obs = [].
Proof.
  induction ops as [|s t IH]; intros obs k pa pb st HR Hrng Ha Hb Hk; [reflexivity|].
  destruct obs as [|ob obt]; [reflexivity|].
  cbn [mon_ops rel_ops] in *.
  assert (Rp : op_in_range n (snd (dec_op s))) by (apply Hrng; left; reflexivity).
  destruct (dec_op s) as [o p] eqn:D. cbn [snd] in Rp.
  destruct (step o st p) as [st' rm] eqn:S1.
  destruct HR as ((Hrel & Hqa & Hqb) & HR').
  rewrite (check_op_ext n o pa pb p _ _ _ (sA st) (sB st) (sA st') (sB st') Ha Hb Hqa Hqb Rp).
  rewrite (check_op_model n _ _ _ _ _ _ S1 Hrel). subst k.
  rewrite (check_alt_model _ _ _ _ _ _ S1 Hrel). cbn [app].
  apply (IH obt _ _ _ st' HR'); [|exact Hqa|exact Hqb|].
  - intros s' Hs. apply Hrng. right. exact Hs.
  - rewrite (step_rnd_next _ _ _ _ _ S1). reflexivity.
Qed.

Lemma wf11_range_spec inp :
  wf11_range inp = true ->
  forall s, In s (sx_list (sx_nth inp 3)) -> op_in_range (sx_nat (sx_nth inp 0)) (snd (dec_op s)).
Proof.
  intros H s Hs d Hd. unfold wf11_range in H.
  pose proof (proj1 (forallb_forall _ _) H s Hs) as H1. unfold op_in_rangeb in H1.
  apply Nat.ltb_lt. exact (proj1 (forallb_forall _ _) H1 d Hd).
Qed.

Lemma mon11_of_rel inp obs :
  wf11_range inp = true -> is_panic obs = false ->
  length (sx_list (sx_nth inp 3)) = length (sx_list obs) ->
  rel_ops (sx_nat (sx_nth inp 0)) (init_state inp) (sx_list (sx_nth inp 3)) (sx_list obs) ->
  mon11 inp obs = [].
Proof.
  intros Hr Hp Hl HR. unfold mon11. rewrite Hp, Hl, Nat.eqb_refl. cbn [app].
  apply (mon_ops_silent _ _ _ _ _ _ (init_state inp) HR (wf11_range_spec inp Hr));
    [apply eqn_refl|apply eqn_refl|reflexivity].
Qed.

Lemma mon11_single inp s ob o p :
  sx_list (sx_nth inp 3) = [s] -> is_panic (L [ob]) = false -> dec_op s = (o, p) ->
  mon11 inp (L [ob]) =
  check_op (sx_nat (sx_nth inp 0)) o (store_of (sx_nth inp 1)) (store_of (sx_nth inp 2)) p
    (dec_obs_res ob) (store_of (sx_nth ob 6)) (store_of (sx_nth ob 7))
  ++ check_alt 0 p (dec_obs_res ob).
Proof.
  intros E P D. unfold mon11. rewrite P, E. cbn [sx_list length Nat.eqb app mon_ops].
  rewrite D, app_nil_r. reflexivity.
Qed.

Lemma rel_ops_model n : forall ops st,
  rel_ops n st ops (map (fun x => enc_res n (fst x) (snd x)) (run_ops n st ops)).
Proof.
  induction ops as [|s t IH]; intros st; [exact I|].
  cbn [run_ops]. destruct (dec_op s) as [o p] eqn:D. destruct (step o st p) as [st' rm] eqn:S1.
  cbn [map rel_ops fst snd]. rewrite D, S1. split; [|apply IH].
  unfold obs_ok. rewrite dec_obs_enc_res. destruct (enc_res_stores n st' rm) as [-> ->].
  split; [|split; apply eqn_trunc].
  split; cbn [okv errs calls]; auto using incl_refl.
  - destruct (errs rm); reflexivity.
  - destruct (errs rm) as [|e l]; [apply incl_refl|]. intros x [<-|[]]. left. reflexivity.
Qed.

Lemma run_ops_length n : forall ops st, length (run_ops n st ops) = length ops.
Proof.
  induction ops as [|s t IH]; intros st; [reflexivity|].
  cbn [run_ops]. destruct (dec_op s) as [o p]. destruct (step o st p) as [st' rm].
  cbn [length]. rewrite IH. reflexivity.
Qed.

Lemma run11_not_panic inp : is_panic (run11 inp) = false.
Proof.
  unfold run11. cbv zeta.
  destruct (run_ops _ _ _) as [|x l]; [reflexivity|]. cbn [map].
  unfold enc_res at 1. destruct (errs (snd x)); reflexivity.
Qed.

Theorem mon11_silent_on_model : forall inp, wf11_range inp = true -> mon11 inp (run11 inp) = [].
Proof.
  intros inp Hr. apply (mon11_of_rel inp (run11 inp) Hr (run11_not_panic inp)).
  - unfold run11. cbn [sx_list]. rewrite map_length, run_ops_length. reflexivity.
  - unfold run11. cbn [sx_list]. apply rel_ops_model.
Qed.

Lemma insertZ_in x y l : In y (insertZ x l) <-> y = x \/ In y l.
Proof.
  induction l as [|h t IH]; cbn [insertZ].
  - cbn. intuition.
  - destruct (x <=? h)%Z; [cbn; intuition|]. cbn [In]. rewrite IH. intuition.
Qed.
Lemma sortZ_in y l : In y (sortZ l) <-> In y l.
Proof.
  induction l as [|h t IH]; cbn [sortZ fold_right]; [reflexivity|].
  fold (sortZ t). rewrite insertZ_in, IH. cbn. intuition.
Qed.

Lemma call_key_enc c :
  call_key (enc_call c) =
  (enc_rid (fst (fst c)) * 1000000 + enc_kind (snd (fst c)) * 100000 + Z.of_nat (snd c))%Z.
Proof. destruct c as [[r k] d]. reflexivity. Qed.

Lemma key_fields (a b d a' b' d' : Z) :
  (0 <= b < 10)%Z -> (0 <= b' < 10)%Z -> (0 <= d < 100000)%Z -> (0 <= d' < 100000)%Z ->
  (a * 1000000 + b * 100000 + d = a' * 1000000 + b' * 100000 + d')%Z -> a = a' /\ b = b' /\ d = d'.
Proof. lia. Qed.

Lemma key_inj c1 c2 :
  (Z.of_nat (snd c1) < 100000)%Z -> (Z.of_nat (snd c2) < 100000)%Z ->
  call_key (enc_call c1) = call_key (enc_call c2) -> c1 = c2.
Proof.
  rewrite !call_key_enc. destruct c1 as [[r1 k1] d1], c2 as [[r2 k2] d2]. cbn [fst snd]. intros H1 H2 H.
  assert (Bk : forall k, (0 <= enc_kind k < 10)%Z) by (intros []; cbn [enc_kind]; lia).
  destruct (key_fields _ _ _ _ _ _ (Bk k1) (Bk k2) (conj (Nat2Z.is_nonneg d1) H1) (conj (Nat2Z.is_nonneg d2) H2) H)
    as (Er & Ek & Ed).
  apply Nat2Z.inj in Ed. subst d2.
  assert (r1 = r2) by (destruct r1, r2; first [reflexivity|discriminate Er]).
  assert (k1 = k2) by (destruct k1, k2; first [reflexivity|discriminate Ek]).
  subst. reflexivity.
Qed.

Lemma wf_call_sx_spec c :
  wf_call_sx c = true -> c = enc_call (dec_call c) /\ (Z.of_nat (snd (dec_call c)) < 100000)%Z.
Proof.
  unfold wf_call_sx. rewrite Bool.andb_true_iff. intros [E B]. apply sx_eqb_eq in E.
  split; [exact E|]. apply Z.ltb_lt in B. unfold dec_call. cbn [snd]. unfold sx_nat. lia.
Qed.

Lemma keys_incl (cs : list call) (l5 : list sx) :
  (forall c, In c cs -> (Z.of_nat (snd c) < 100000)%Z) ->
  forallb wf_call_sx l5 = true ->
  sortZ (map call_key (map enc_call cs)) = sortZ (map call_key l5) ->
  incl (map dec_call l5) cs /\ incl cs (map dec_call l5).
Proof.
  intros Hcs Hwf Hs.
  assert (Hin : forall z, In z (map call_key (map enc_call cs)) <-> In z (map call_key l5)).
  { intros z. rewrite <- (sortZ_in z (map call_key (map enc_call cs))), Hs. apply sortZ_in. }
  assert (W : forall c, In c l5 -> c = enc_call (dec_call c) /\ (Z.of_nat (snd (dec_call c)) < 100000)%Z).
  { intros c Hc. apply wf_call_sx_spec. exact (proj1 (forallb_forall _ _) Hwf c Hc). }
  split.
  - intros c' Hc'. apply in_map_iff in Hc'. destruct Hc' as (c & <- & Hc).
    assert (Hk : In (call_key c) (map call_key (map enc_call cs))).
    { apply Hin. apply in_map. exact Hc. }
    rewrite map_map in Hk. apply in_map_iff in Hk. destruct Hk as (cm & Ek & Hcm).
    destruct (W c Hc) as [Ec Bc]. rewrite Ec in Ek.
    rewrite <- (key_inj cm (dec_call c) (Hcs cm Hcm) Bc Ek). exact Hcm.
  - intros cm Hcm.
    assert (Hk : In (call_key (enc_call cm)) (map call_key l5)).
    { apply Hin. rewrite map_map. apply (in_map (fun c => call_key (enc_call c))). exact Hcm. }
    apply in_map_iff in Hk. destruct Hk as (c & Ek & Hc).
    destruct (W c Hc) as [Ec Bc]. rewrite Ec in Ek.
    rewrite (key_inj cm (dec_call c) (Hcs cm Hcm) Bc (eq_sym Ek)). apply in_map. exact Hc.
Qed.

Lemma of_Zs_inj a b : of_Zs a = of_Zs b -> a = b.
Proof. intros H. rewrite <- (sx_Zs_of_Zs a), <- (sx_Zs_of_Zs b), H. reflexivity. Qed.

Lemma agree_op_ok n o st p st' rm ob :
  step o st p = (st', rm) ->
  key_safe_op p = true ->
  bump_op p || forallb wf_call_sx (sx_list (sx_nth ob 5)) = true ->
  agree_op n p st' rm ob = true -> obs_ok n p st' rm ob.
Proof.
  intros S1 Hk Hw Hag. unfold agree_op in Hag. cbv zeta in Hag.
  rewrite !Bool.andb_true_iff in Hag. destruct Hag as (((((H1 & H2) & H3) & H4) & H5) & H6).
  apply Bool.eqb_prop in H1. apply sx_eqb_eq in H2, H5, H6.
  unfold obs_ok. rewrite <- H5, <- H6. split; [|split; apply eqn_trunc].
  assert (HC : incl (map dec_call (sx_list (sx_nth ob 5))) (calls rm)
               /\ incl (calls rm) (map dec_call (sx_list (sx_nth ob 5)))
               /\ (bump_op p = true -> map dec_call (sx_list (sx_nth ob 5)) = calls rm)).
  { destruct (bump_op p) eqn:B.
    - apply sx_eqb_eq in H4. rewrite <- H4. cbn [sx_list]. rewrite map_dec_enc_call.
      auto using incl_refl.
    - cbn [orb] in Hw. apply sx_eqb_eq, of_Zs_inj in H4.
      unfold key_safe_op in Hk. rewrite B in Hk. cbn [orb] in Hk.
      destruct (keys_incl (calls rm) (sx_list (sx_nth ob 5))) as [I1 I2]; [|exact Hw|exact H4|].
      + intros c Hc. destruct (step_calls_digests _ _ _ _ _ S1 B c Hc) as [->|I]; [reflexivity|].
        apply Z.ltb_lt. exact (proj1 (forallb_forall _ _) Hk _ I).
      + split; [exact I1|]. split; [exact I2|discriminate]. }
  destruct HC as (C1 & C2 & C3).
  unfold dec_obs_res. split; cbn [okv errs calls]; try assumption.
  - rewrite H2. apply sx_nats_of_nats.
  - rewrite H1. destruct (is_nil (errs rm)); reflexivity.
  - destruct (sx_bool (sx_nth ob 0)); [apply incl_nil_l|]. cbn [orb] in H3.
    apply existsb_exists in H3. destruct H3 as (e & He & Hc).
    rewrite !Bool.andb_true_iff, !Z.eqb_eq in Hc. destruct Hc as ((Hc1 & Hc2) & Hc3).
    rewrite <- Hc1, <- Hc2, <- Hc3, dec_enc_err. intros x [<-|[]]. exact He.
Qed.

Lemma agree_ops_rel n : forall ops obs st,
  forallb (fun s => key_safe_op (snd (dec_op s))) ops = true ->
  wf11_calls ops obs = true ->
  agree_ops n st ops obs = true ->
  length ops = length obs /\ rel_ops n st ops obs.
Proof.
  induction ops as [|s t IH]; intros obs st Hk Hw Hag; destruct obs as [|ob obt]; try discriminate.
  - split; [reflexivity|exact I].
  - cbn [agree_ops rel_ops wf11_calls forallb length] in *.
    destruct (dec_op s) as [o p] eqn:D. cbn [snd] in *. destruct (step o st p) as [st' rm] eqn:S1.
    apply Bool.andb_true_iff in Hk, Hw, Hag. destruct Hk as [Hk1 Hk2], Hw as [Hw1 Hw2], Hag as [Ha1 Ha2].
    destruct (IH obt st' Hk2 Hw2 Ha2) as [L R].
    split; [rewrite L; reflexivity|]. split; [|exact R].
    exact (agree_op_ok _ _ _ _ _ _ _ S1 Hk1 Hw1 Ha1).
Qed.

Theorem mon11_silent_on_allowed : forall inp obs,
  wf11_range inp = true -> wf11_keys inp = true ->
  wf11_calls (sx_list (sx_nth inp 3)) (sx_list obs) = true ->
  is_panic obs = false ->
  agree_ops (sx_nat (sx_nth inp 0)) (init_state inp) (sx_list (sx_nth inp 3)) (sx_list obs) = true ->
  mon11 inp obs = [].
Proof.
  intros inp obs Hr Hk Hw Hp Hag.
  destruct (agree_ops_rel _ _ _ _ Hk Hw Hag) as [L R].
  exact (mon11_of_rel inp obs Hr Hp L R).
Qed.

Definition verdict_agree (v : sx) : bool := sx_bool (sx_nth v 0).
Definition verdict_violates (v : sx) : bool := sx_bool (sx_nth v 1).

Lemma verdict_fields11 a v m d :
  verdict_agree (verdict a v m d) = a /\ verdict_violates (verdict a v m d) = v.
Proof.
  unfold verdict_agree, verdict_violates, verdict, sx_nth. cbn [sx_list nth].
  rewrite !sx_bool_of_bool. split; reflexivity.
Qed.

Theorem judge11_agree_not_violates : forall inp obs,
  wf11_range inp = true -> wf11_keys inp = true ->
  wf11_calls (sx_list (sx_nth inp 3)) (sx_list obs) = true ->
  verdict_agree (judge11 inp obs) = true -> verdict_violates (judge11 inp obs) = false.
Proof.
  intros inp obs Hr Hk Hw. unfold judge11. cbv zeta.
  destruct (verdict_fields11
              (negb (is_panic obs)
               && agree_ops (sx_nat (sx_nth inp 0)) (init_state inp) (sx_list (sx_nth inp 3)) (sx_list obs))
              (negb (match mon11 inp obs with [] => true | _ => false end))
              (run11 inp) (of_Zs (mon11 inp obs))) as [-> ->].
  intros Ha. apply Bool.andb_true_iff in Ha. destruct Ha as [Hp Hag].
  apply Bool.negb_true_iff in Hp.
  rewrite (mon11_silent_on_allowed inp obs Hr Hk Hw Hp Hag). reflexivity.
Qed.

(** * The digest bound of [wf11_keys] is needed even when every digest is in
    range.  For any universe [n] above 100000 and [d] = 100000 < n: an upload
    of [d] whose B branch is answered NOT_FOUND.  The model's call log
    {(A,Put,d), (B,Put,d)} and the (well-formed) observed log {(A,FindMissing,0),
    (B,FindMissing,0)} have the same [call_key]s, the judge's agreement
    accepts the observation, and clause 8 fires on it because NOT_FOUND was
    not injected on any call of the observed log.  (Stated for symbolic [n],
    [d]: evaluating the monitor at n = 100001 takes ~10^10 steps.) *)
Definition kn_fault : sx := L [A 1; A 1; A 100000; A 5].
Definition kn_op : sx := L [A 1; L [kn_fault]; A 100000; A 5; A 0].
Definition kn_inp (n : nat) : sx := L [of_nat n; L []; L []; L [kn_op]].
Definition kn_ob (n d : nat) : sx :=
  L [A 0; L []; A 5; A 2; A 2; L [L [A 0; A 2; A 0]; L [A 1; A 2; A 0]];
     enc_store n [(d, 5)]; enc_store n []].
Definition kn_obs (n d : nat) : sx := L [kn_ob n d].
Definition kn_o : oracle := oracle_of [kn_fault].

Lemma kn_oracle d : Z.of_nat d = 100000%Z -> forall r k d',
  kn_o r k d' = if rid_eqb r RB && kind_eqb k KPut && Nat.eqb d' d then 5%Z else 0%Z.
Proof.
  intros Hd r k d'. rewrite <- (Nat2Z.id d), Hd. exact (oracle_of_single RB KPut 100000 5 r k d').
Qed.

Lemma kn_dec_op d : Z.of_nat d = 100000%Z -> dec_op kn_op = (kn_o, OPut d 5).
Proof.
  intros Hd. assert (Hdz : Z.to_nat 100000 = d) by lia.
  unfold dec_op, kn_op, sx_nth, sx_nat. cbn [sx_list nth sx_Z Z.eqb Pos.eqb]. rewrite Hdz. reflexivity.
Qed.

Lemma kn_step d : Z.of_nat d = 100000%Z ->
  step kn_o (mkst [] [] 0) (OPut d 5) =
  (mkst [(d, 5)] [] 0, mkres [] [mkerr 5 (TBackend RB) RB] [(RA, KPut, d); (RB, KPut, d)]).
Proof.
  intros Hd. cbn [step]. unfold m_put, put_branch, rput. cbn [sto sA sB].
  rewrite (kn_oracle d Hd RA KPut d). cbn [rid_eqb andb Z.eqb set_sto sto sA sB rnd].
  rewrite (kn_oracle d Hd RB KPut d), Nat.eqb_refl. reflexivity.
Qed.

Lemma kn_wf_keys inp : sx_list (sx_nth inp 3) = [kn_op] -> wf11_keys inp = false.
Proof.
  intros O3. unfold wf11_keys. rewrite O3. cbn [forallb].
  rewrite (kn_dec_op (Z.to_nat 100000) (Z2Nat.id 100000 ltac:(discriminate))).
  unfold key_safe_op. cbn [snd bump_op op_digests forallb orb]. rewrite Z2Nat.id by discriminate. reflexivity.
Qed.

Lemma kn_agree n d : Z.of_nat d = 100000%Z ->
  agree_ops n (mkst [] [] 0) [kn_op] [kn_ob n d] = true.
Proof.
  intros Hd. cbn [agree_ops]. rewrite (kn_dec_op d Hd), (kn_step d Hd).
  rewrite Bool.andb_true_r. unfold agree_op, kn_ob, sx_nth. cbn [sx_list nth sA sB errs okv calls bump_op].
  rewrite !sx_eqb_refl. cbn [map]. rewrite !call_key_enc. cbn [fst snd]. rewrite Hd. reflexivity.
Qed.

Lemma kn_wf_on_obs d : Z.of_nat d = 100000%Z -> wf_on kn_o [(RA, KFM, 0); (RB, KFM, 0)] = true.
Proof.
  intros Hd. cbn [wf_on forallb kind_eqb orb].
  rewrite (kn_oracle d Hd RA KFM 0), (kn_oracle d Hd RB KFM 0). reflexivity.
Qed.

Lemma put_nf_check_op o d x t og cs : d <> 0 ->
  check_op 1 o [] [] (OPut d x) (mkres [] [mkerr NF t og] cs) [] [] = flag (negb (wf_on o cs)) 8.
Proof.
  destruct d as [|d']; [contradiction|]. intros _. rewrite check_op_eq.
  unfold cl1, cl2, cl7, cl8, cl9. cbn -[wf_on]. destruct (wf_on o cs); reflexivity.
Qed.

Theorem keys_hypothesis_needed : forall n d, Z.of_nat d = 100000%Z -> d < n ->
  wf11_range (kn_inp n) = true
  /\ wf11_keys (kn_inp n) = false
  /\ wf11_calls (sx_list (sx_nth (kn_inp n) 3)) (sx_list (kn_obs n d)) = true
  /\ is_panic (kn_obs n d) = false
  /\ agree_ops (sx_nat (sx_nth (kn_inp n) 0)) (init_state (kn_inp n))
       (sx_list (sx_nth (kn_inp n) 3)) (sx_list (kn_obs n d)) = true
  /\ mon11 (kn_inp n) (run11 (kn_inp n)) = []
  /\ In 8%Z (mon11 (kn_inp n) (kn_obs n d)).
Proof.
  intros n d Hd Hn.
  assert (N0 : sx_nat (sx_nth (kn_inp n) 0) = n) by apply sx_nat_of_nat.
  assert (R : wf11_range (kn_inp n) = true).
  { unfold wf11_range. rewrite N0. cbn [kn_inp sx_nth sx_list nth forallb]. rewrite (kn_dec_op d Hd).
    unfold op_in_rangeb. cbn [snd op_digests forallb]. apply Nat.ltb_lt in Hn. rewrite Hn. reflexivity. }
  split; [exact R|]. split; [apply kn_wf_keys; reflexivity|].
  split; [reflexivity|]. split; [reflexivity|].
  split; [rewrite N0; exact (kn_agree n d Hd)|].
  split; [exact (mon11_silent_on_model _ R)|].
  unfold kn_obs. rewrite (mon11_single (kn_inp n) kn_op (kn_ob n d) _ _ eq_refl eq_refl (kn_dec_op d Hd)), check_op_eq.
  apply in_or_app. left.
  apply in_or_app. right. apply in_or_app. right. apply in_or_app. right. apply in_or_app. left.
  change (dec_obs_res (kn_ob n d))
    with (mkres [] [mkerr NF (TBackend RB) RB] [(RA, KFM, 0); (RB, KFM, 0)]).
  unfold cl8. cbn [errs calls forallb].
  rewrite (kn_wf_on_obs d Hd). left. reflexivity.
Qed.

Lemma mon11_one_step : forall n o st p st' rm r,
  step o st p = (st', rm) -> obs_rel p rm r ->
  check_op n o (sA st) (sB st) p r (sA st') (sB st') = nil /\ check_alt (rnd st) p r = nil.
Proof. intros n o st p st' rm r H R. exact (conj (check_op_model n _ _ _ _ _ _ H R) (check_alt_model _ _ _ _ _ _ H R)). Qed.
