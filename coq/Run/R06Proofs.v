(** C06 — the run-time monitor [mon06] never fires on what the model itself
    predicts ([run06]), for every well-formed input:

    history cases (kind 0): the operations respect the block window (a Put
    names a block in [lo, hi), a PopFront finds a block, kinds are 0..3) --
    exactly what the harness validates before running anything;
    codec cases: when the monitor compares at all (same seed, no damage), the
    key has 32 bytes and attempt/offset/size fit their fields.

    Each hypothesis is necessary ([mon06_needs_*]). *)
From Coq Require Import List Arith NArith ZArith Bool Lia.
From BBS Require Import Common.Sx Common.SxFactsMA Generated.Consts
     Index.Klm Index.KlmProofs Index.KlmFrame Index.KlmFnv Index.KlmFnvProofs Index.MonSilentKlm
     Index.RecordCodec Index.MonSilentCodec Run.R06.
Import ListNotations.
Open Scope Z_scope.

Lemma loc_eqb_spec a b : loc_eqb a b = true <-> a = b.
Proof.
  destruct a as [b1 o1 s1], b as [b2 o2 s2]. unfold loc_eqb. cbn [blk off size]. split.
  - intros H. apply andb_true_iff in H. destruct H as [H H3]. apply andb_true_iff in H. destruct H as [H1 H2].
    apply N.eqb_eq in H1. apply N.eqb_eq in H2. apply N.eqb_eq in H3. subst. reflexivity.
  - intros H. injection H as -> -> ->. rewrite !N.eqb_refl. reflexivity.
Qed.
Lemma oloc_eqb_spec a b : oloc_eqb a b = true <-> a = b.
Proof.
  destruct a as [x|], b as [y|]; cbn; try (split; [discriminate|intros H; discriminate]); [|split; reflexivity].
  rewrite loc_eqb_spec. split; [intros ->; reflexivity|intros H; inversion H; reflexivity].
Qed.
Lemma oloc_eqb_refl a : oloc_eqb a a = true.
Proof. apply oloc_eqb_spec. reflexivity. Qed.

Lemma nth_map_seq {T} (f : nat -> T) n i d : (i < n)%nat -> nth i (map f (seq 0 n)) d = f i.
Proof.
  intros H. rewrite (nth_indep _ d (f 0%nat)) by (rewrite map_length, seq_length; exact H).
  rewrite map_nth, seq_nth by exact H. reflexivity.
Qed.

Lemma in_seq0 i n : In i (seq 0 n) <-> (i < n)%nat.
Proof. rewrite in_seq. lia. Qed.

Lemma filter_nil_all {T} (f : T -> bool) l : (forall x, In x l -> f x = false) -> filter f l = [].
Proof.
  induction l as [|a l IH]; intros H; [reflexivity|]. cbn [filter].
  rewrite (H a (or_introl eq_refl)). apply IH. intros x Hx. apply H. right; exact Hx.
Qed.

Lemma NoDup_all_equal_short {T} (l : list T) : NoDup l -> (forall x y, In x l -> In y l -> x = y) -> (length l <= 1)%nat.
Proof.
  intros Hnd Heq. destruct l as [|a [|b t]]; cbn; [apply Nat.le_0_l|apply Nat.le_refl|].
  exfalso. inversion Hnd as [|? ? Hni _]; subst. apply Hni.
  rewrite (Heq a b); [left; reflexivity|left; reflexivity|right; left; reflexivity].
Qed.

Lemma and_later (A B : Prop) : B -> (B -> A) -> A /\ B.
Proof. tauto. Qed.

Section Clauses.
  Variable c : cfg06.
  Variables (lo' hi' : N) (hist' : list (nat * loc)) (res prev : list (option loc)).
  Variables (isput : bool) (kind : Z) (ki : nat) (l : loc) (ndisc : nat) (am' : amap nat) (disc' : nat).

  Definition cl1 : bool :=
    let idx := seq 0 (length (c_keys c)) in
    let get_now i := nth i res None in
    negb (forallb (fun i => match get_now i with
                            | Some x => stored hist' i x && valid lo' hi' x
                            | None => true end) idx).
  Definition changed_ : list nat :=
    let idx := seq 0 (length (c_keys c)) in
    let get_now i := nth i res None in
    let get_prev i := nth i prev None in
    let others := filter (fun i => negb (isput && same_key c ki i)) idx in
    filter (fun i => negb (oloc_eqb (get_now i) (get_prev i))) others.
  Definition cl2 : bool :=
    let changed := changed_ in
    let changed_distinct :=
      filter (fun i => negb (existsb (fun j => Nat.ltb j i && same_key c i j) changed)) changed in
    if isput then Nat.ltb ndisc (length changed_distinct)
    else if Z.eqb kind 2 then false else negb (is_nil changed).
  Definition cl3 : bool :=
    let get_now i := nth i res None in
    let get_prev i := nth i prev None in
    isput && negb (forallb (fun i => match get_prev i, get_now i with
                                     | Some p, Some x => older x p
                                     | None, Some _ => false
                                     | _, None => true end) changed_).
  Definition cl4 : bool :=
    let get_prev i := nth i prev None in
    isput && negb (forallb (fun i => match get_prev i with
                                     | Some p => negb (older l p)
                                     | None => true end) changed_).
  Definition cl5 : bool :=
    let idx := seq 0 (length (c_keys c)) in
    let get_now i := nth i res None in
    let get_prev i := nth i prev None in
    isput && negb (forallb (fun i =>
                 if same_key c ki i then
                   oloc_eqb (get_now i) (Some (newest_of (get_prev i) l))
                   || (Nat.ltb 0 ndisc && oloc_eqb (get_now i) (get_prev i))
                 else true) idx).
  Definition cl6 : bool :=
    let idx := seq 0 (length (c_keys c)) in
    let get_now i := nth i res None in
    let get_prev i := nth i prev None in
    Z.eqb kind 2 && negb (forallb (fun i =>
                 oloc_eqb (get_now i)
                          (match get_prev i with
                           | Some p => if valid lo' hi' p then Some p else None
                           | None => None end)) idx).
  Definition cl7 : bool :=
    let idx := seq 0 (length (c_keys c)) in
    let get_now i := nth i res None in
    Nat.eqb disc' 0 && negb (forallb (fun i => oloc_eqb (get_now i) (amap_get nat lo' hi' am' i)) idx).
End Clauses.

Definition flz (b : bool) (z : Z) : list Z := if b then [z] else [].

Lemma flz_quiet b1 b2 b3 b4 b5 b6 b7 :
  b1 = false -> b2 = false -> b3 = false -> b4 = false -> b5 = false -> b6 = false -> b7 = false ->
  flz b1 1 ++ flz b2 2 ++ flz b3 3 ++ flz b4 4 ++ flz b5 5 ++ flz b6 6 ++ flz b7 7 = [].
Proof. intros -> -> -> -> -> -> ->. reflexivity. Qed.

Lemma mon_step_eq c st o ob :
  mon_step c st o ob =
  let m := sx_nth ob 0 in
  let res := map dec_res (sx_list (sx_nth ob 1)) in
  let kind := sx_Z (sx_nth o 0) in
  let ki := sx_nat (sx_nth o 1) in
  let l := dec_loc o in
  let isput := Z.eqb kind 0 in
  let lo' := if Z.eqb kind 2 then N.succ (m_lo st) else m_lo st in
  let hi' := if Z.eqb kind 3 then N.succ (m_hi st) else m_hi st in
  let hist' := if isput then map (fun j => (j, l)) (filter (same_key c ki) (seq 0 (length (c_keys c)))) ++ m_hist st
               else m_hist st in
  let ndisc := if isput then Z.to_nat (sx_Z (sx_nth m 6) + sx_Z (sx_nth m 8)) else O in
  let am' := if isput then amap_put nat (same_key c) (m_amap st) ki l else m_amap st in
  let disc' := (m_disc st + ndisc)%nat in
  ({| m_lo := lo'; m_hi := hi'; m_hist := hist'; m_prev := res; m_disc := disc'; m_amap := am' |},
   flz (cl1 c lo' hi' hist' res) 1 ++ flz (cl2 c res (m_prev st) isput kind ki ndisc) 2
   ++ flz (cl3 c res (m_prev st) isput ki) 3 ++ flz (cl4 c res (m_prev st) isput ki l) 4
   ++ flz (cl5 c res (m_prev st) isput ki l ndisc) 5 ++ flz (cl6 c lo' hi' res (m_prev st) kind) 6
   ++ flz (cl7 c lo' hi' res am' disc') 7).
Proof. reflexivity. Qed.

Section ClauseLemmas.
  Variable c : cfg06.
  Let nk := length (c_keys c).
  Variables (res prev : list (option loc)).
  Let now_ i := nth i res None.
  Let prev_ i := nth i prev None.

  Lemma cl1_false lo' hi' hist' :
    (forall i x, (i < nk)%nat -> now_ i = Some x -> stored hist' i x = true /\ valid lo' hi' x = true) ->
    cl1 c lo' hi' hist' res = false.
  Proof.
    intros H. unfold cl1. cbv zeta. apply negb_false_iff. apply forallb_forall. intros i Hi.
    apply in_seq0 in Hi. fold (now_ i). destruct (now_ i) as [x|] eqn:E; [|reflexivity].
    destruct (H i x Hi E) as [-> ->]. reflexivity.
  Qed.

  Lemma changed_in isput ki i :
    In i (changed_ c res prev isput ki) <->
    (i < nk)%nat /\ (isput && same_key c ki i = false) /\ now_ i <> prev_ i.
  Proof.
    unfold changed_. cbv zeta. fold (now_ i) (prev_ i). split.
    - intros H. apply filter_In in H. destruct H as [H H3]. apply filter_In in H. destruct H as [H1 H2].
      apply in_seq0 in H1. apply negb_true_iff in H2. apply negb_true_iff in H3.
      split; [exact H1|]. split; [exact H2|]. intros E. apply oloc_eqb_spec in E. unfold now_, prev_ in E.
      rewrite E in H3. discriminate.
    - intros [H1 [H2 H3]]. apply filter_In. split; [apply filter_In; split; [apply in_seq0; exact H1|apply negb_true_iff; exact H2]|].
      fold (now_ i) (prev_ i). destruct (oloc_eqb (now_ i) (prev_ i)) eqn:E; [|reflexivity]. apply oloc_eqb_spec in E. contradiction.
  Qed.

  Lemma changed_nodup isput ki : NoDup (changed_ c res prev isput ki).
  Proof. unfold changed_. cbv zeta. apply NoDup_filter, NoDup_filter, seq_NoDup. Qed.

  Lemma cl2_put_false kind ki ndisc :
    (ndisc = 0%nat -> forall i, (i < nk)%nat -> same_key c ki i = false -> now_ i = prev_ i) ->
    (forall i j, (i < nk)%nat -> (j < nk)%nat -> same_key c ki i = false -> same_key c ki j = false ->
                 now_ i <> prev_ i -> now_ j <> prev_ j -> same_key c i j = true) ->
    cl2 c res prev true kind ki ndisc = false.
  Proof.
    intros HA HB. unfold cl2. cbv zeta. apply Nat.ltb_ge.
    destruct (Nat.eq_dec ndisc 0) as [E|E].
    - rewrite (filter_nil_all _ (changed_ c res prev true ki)); [apply Nat.le_0_l|].
      intros i Hi. exfalso. apply changed_in in Hi. destruct Hi as [Hi [Hs Hn]]. cbn [andb] in Hs.
      apply Hn. apply HA; assumption.
    - etransitivity; [|exact (proj1 (Nat.neq_0_lt_0 ndisc) E)].
      apply NoDup_all_equal_short; [apply NoDup_filter, changed_nodup|].
      (* of two changed indices the larger one sees the smaller one, with the same key, among the changed *)
      assert (W : forall x y, In x (changed_ c res prev true ki) -> In y (changed_ c res prev true ki) -> (x < y)%nat ->
                  existsb (fun j => Nat.ltb j y && same_key c y j) (changed_ c res prev true ki) = true).
      { intros x y Hx Hy Hlt. apply existsb_exists. exists x. split; [exact Hx|].
        apply andb_true_iff. split; [apply Nat.ltb_lt; exact Hlt|].
        apply changed_in in Hx. apply changed_in in Hy.
        destruct Hx as [Hxi [Hxs Hxn]]. destruct Hy as [Hyi [Hys Hyn]]. cbn [andb] in Hxs, Hys. apply HB; assumption. }
      intros x y Hx Hy. apply filter_In in Hx. apply filter_In in Hy.
      destruct Hx as [Hx Hx']. destruct Hy as [Hy Hy']. apply negb_true_iff in Hx'. apply negb_true_iff in Hy'.
      destruct (Nat.lt_trichotomy x y) as [Hlt|[Heq|Hlt]]; [|exact Heq|].
      + rewrite (W x y Hx Hy Hlt) in Hy'. discriminate.
      + rewrite (W y x Hy Hx Hlt) in Hx'. discriminate.
  Qed.

  Lemma changed_none ki : (forall i, (i < nk)%nat -> now_ i = prev_ i) -> changed_ c res prev false ki = [].
  Proof.
    intros H. unfold changed_. cbv zeta. apply filter_nil_all. intros i Hi. apply filter_In in Hi.
    destruct Hi as [Hi _]. apply in_seq0 in Hi. fold (now_ i) (prev_ i). rewrite (H i Hi), oloc_eqb_refl. reflexivity.
  Qed.

  Lemma cl2_other_false kind ki ndisc :
    (forall i, (i < nk)%nat -> now_ i = prev_ i) -> cl2 c res prev false kind ki ndisc = false.
  Proof. intros H. unfold cl2. cbv zeta. rewrite (changed_none ki H). destruct (Z.eqb kind 2); reflexivity. Qed.

  Lemma cl2_release_false ki ndisc : cl2 c res prev false 2 ki ndisc = false.
  Proof. reflexivity. Qed.

  Lemma cl3_false ki :
    (forall i, (i < nk)%nat -> same_key c ki i = false -> now_ i <> prev_ i ->
               match prev_ i, now_ i with
               | Some p, Some x => older x p
               | None, Some _ => false
               | _, None => true end = true) ->
    cl3 c res prev true ki = false.
  Proof.
    intros H. unfold cl3. cbv zeta. cbn [andb]. apply negb_false_iff. apply forallb_forall. intros i Hi.
    apply changed_in in Hi. destruct Hi as [Hi [Hs Hn]]. cbn [andb] in Hs. apply (H i Hi Hs Hn).
  Qed.

  Lemma cl4_false ki l :
    (forall i p, (i < nk)%nat -> same_key c ki i = false -> now_ i <> prev_ i -> prev_ i = Some p -> older l p = false) ->
    cl4 c res prev true ki l = false.
  Proof.
    intros H. unfold cl4. cbv zeta. cbn [andb]. apply negb_false_iff. apply forallb_forall. intros i Hi.
    apply changed_in in Hi. destruct Hi as [Hi [Hs Hn]]. cbn [andb] in Hs.
    fold (prev_ i). destruct (prev_ i) as [p|] eqn:E; [|reflexivity]. rewrite <- E in Hn. rewrite (H i p Hi Hs Hn E). reflexivity.
  Qed.

  Lemma cl5_false ki l ndisc :
    (forall i, (i < nk)%nat -> same_key c ki i = true ->
               now_ i = Some (newest_of (prev_ i) l) \/ ((0 < ndisc)%nat /\ now_ i = prev_ i)) ->
    cl5 c res prev true ki l ndisc = false.
  Proof.
    intros H. unfold cl5. cbv zeta. cbn [andb]. apply negb_false_iff. apply forallb_forall. intros i Hi.
    apply in_seq0 in Hi. destruct (same_key c ki i) eqn:Es; [|reflexivity].
    fold (now_ i) (prev_ i). destruct (H i Hi Es) as [E|[Hd E]].
    - rewrite E, oloc_eqb_refl. reflexivity.
    - rewrite E, oloc_eqb_refl. apply Nat.ltb_lt in Hd. rewrite Hd. apply orb_true_r.
  Qed.

  Lemma cl6_false lo' hi' :
    (forall i, (i < nk)%nat -> now_ i = match prev_ i with
                                        | Some p => if valid lo' hi' p then Some p else None
                                        | None => None end) ->
    cl6 c lo' hi' res prev 2 = false.
  Proof.
    intros H. unfold cl6. cbv zeta. cbn [Z.eqb Pos.eqb andb]. apply negb_false_iff. apply forallb_forall. intros i Hi.
    apply in_seq0 in Hi. fold (now_ i) (prev_ i). rewrite (H i Hi). apply oloc_eqb_refl.
  Qed.

  Lemma cl6_other_false lo' hi' kind : kind <> 2 -> cl6 c lo' hi' res prev kind = false.
  Proof. intros H. unfold cl6. cbv zeta. apply Z.eqb_neq in H. rewrite H. reflexivity. Qed.

  Lemma cl7_false lo' hi' am' disc' :
    (disc' = 0%nat -> forall i, (i < nk)%nat -> now_ i = amap_get nat lo' hi' am' i) ->
    cl7 c lo' hi' res am' disc' = false.
  Proof.
    intros H. unfold cl7. cbv zeta. destruct (Nat.eqb disc' 0) eqn:E; [|reflexivity]. apply Nat.eqb_eq in E.
    cbn [andb]. apply negb_false_iff. apply forallb_forall. intros i Hi. apply in_seq0 in Hi.
    fold (now_ i). rewrite (H E i Hi). apply oloc_eqb_refl.
  Qed.

  Lemma cl345_nonput_false ki l ndisc :
    cl3 c res prev false ki = false /\ cl4 c res prev false ki l = false /\ cl5 c res prev false ki l ndisc = false.
  Proof. repeat split; reflexivity. Qed.
End ClauseLemmas.

Lemma first_index_bound keys k : forall i, (i <= first_index keys k i <= i + length keys)%nat.
Proof.
  induction keys as [|k' t IH]; intros i; cbn [first_index length]; [lia|].
  destruct (bkey_eqb k' k); [lia|]. specialize (IH (S i)). lia.
Qed.
Lemma first_index_inj keys k1 k2 : forall i,
  In k2 keys -> first_index keys k1 i = first_index keys k2 i -> k1 = k2.
Proof.
  induction keys as [|k' t IH]; intros i Hin E; [destruct Hin|]. cbn [first_index] in E.
  pose proof (first_index_bound t k1 (S i)) as B1. pose proof (first_index_bound t k2 (S i)) as B2.
  destruct (bkey_eqb k' k1) eqn:E1, (bkey_eqb k' k2) eqn:E2.
  - apply bkey_eqb_spec in E1. apply bkey_eqb_spec in E2. congruence.
  - lia.
  - lia.
  - destruct Hin as [Hin|Hin]; [apply bkey_eqb_spec in Hin; congruence|]. exact (IH (S i) Hin E).
Qed.

Lemma same_key_sym c i j : same_key c i j = same_key c j i.
Proof. unfold same_key. apply eq_true_iff_eq. rewrite !bkey_eqb_spec. split; congruence. Qed.

Lemma canon_same c i j :
  (i < length (c_keys c))%nat -> Nat.eqb (i_key c j) (i_key c i) = same_key c j i.
Proof.
  intros Hi. unfold i_key, canon, same_key, key_at.
  destruct (bkey_eqb (nth j (c_keys c) []) (nth i (c_keys c) [])) eqn:E.
  - apply bkey_eqb_spec in E. rewrite E. apply Nat.eqb_refl.
  - apply Nat.eqb_neq. intros Heq. apply first_index_inj in Heq; [|apply nth_In; exact Hi].
    apply bkey_eqb_spec in Heq. congruence.
Qed.

Lemma dec_res_enc_get g : dec_res (enc_get g) = lookup_of g.
Proof.
  destruct g as [[b o z] a|a|]; unfold dec_res, enc_get, sx_nth; cbn [sx_list nth sx_Z blk off size lookup_of].
  - change (1 =? 1) with true. cbv iota. rewrite !sx_N_of_N. reflexivity.
  - reflexivity.
  - reflexivity.
Qed.

Lemma ndisc_enc_put (r : pres nat) :
  Z.to_nat (sx_Z (sx_nth (enc_put r) 6) + sx_Z (sx_nth (enc_put r) 8))
  = match discarded r with Some _ => 1%nat | None => 0%nat end.
Proof. destruct r; reflexivity. Qed.

Lemma newest_of_eq p l : newest_of p l = newest p l.
Proof. reflexivity. Qed.

Lemma stored_app h1 h2 i x : stored (h1 ++ h2) i x = stored h1 i x || stored h2 i x.
Proof. unfold stored. apply existsb_app. Qed.

Lemma stored_in h i x : In (i, x) h -> stored h i x = true.
Proof.
  intros H. unfold stored. apply existsb_exists. exists (i, x). split; [exact H|].
  rewrite Nat.eqb_refl. cbn. apply loc_eqb_spec. reflexivity.
Qed.

Lemma map_const_seq {T U} (l : list T) (b : U) : map (fun _ => b) l = map (fun _ => b) (seq 0 (length l)).
Proof.
  generalize 0%nat. induction l as [|a l IH]; intros k; [reflexivity|]. cbn [length seq map]. f_equal. apply IH.
Qed.

Section Hist.
  Variable c : cfg06.
  Hypothesis n_pos : (0 < c_n c)%nat.
  Let nk := length (c_keys c).
  Let tb := i_tab c.
  Let slotf : nat -> nat -> nat := i_slot tb.
  Let K := i_key c.
  Let mg := c_maxget c.
  Let mp := c_maxput c.
  Notation lookupM := (lookup nat Nat.eqb slotf mg).
  Notation runM := (run nat Nat.eqb slotf mg mp).
  Notation stepM := (step nat Nat.eqb slotf mg mp).
  Notation putM := (klm_put nat Nat.eqb slotf mg mp).
  Notation discardsM := (discards nat Nat.eqb slotf mg mp).
  Notation amrun := (amap_run nat Nat.eqb (amap_empty nat)).

  Lemma slotf_lt k a : (slotf k a < c_n c)%nat.
  Proof.
    unfold slotf, i_slot, tab_slot, tb, i_tab, slot_table.
    destruct (nth_in_or_default k (map (fun k0 => map (fnv_slot (c_init c) (c_n c) k0) (seq 0 (S (c_maxget c)))) (c_keys c)) [])
      as [Hin | ->].
    - apply in_map_iff in Hin. destruct Hin as (key & <- & _).
      destruct (nth_in_or_default a (map (fnv_slot (c_init c) (c_n c) key) (seq 0 (S (c_maxget c)))) 0%nat) as [Hin | ->].
      + apply in_map_iff in Hin. destruct Hin as (x & <- & _). apply fnv_slot_lt. exact n_pos.
      + exact n_pos.
    - destruct a; exact n_pos.
  Qed.

  Definition hop (o : sx) : op nat :=
    match sx_Z (sx_nth o 0) with
    | 0 => OPut (K (sx_nat (sx_nth o 1))) (dec_loc o)
    | 1 => OGet (K (sx_nat (sx_nth o 1)))
    | 2 => ORelease
    | _ => OGrow
    end.

  Definition view (s : klm nat) : list (option loc) := map (fun i => lookupM s (K i)) (seq 0 nk).

  Lemma view_nth s i : (i < nk)%nat -> nth i (view s) None = lookupM s (K i).
  Proof. intros H. unfold view. apply (nth_map_seq (fun i => lookupM s (K i))). exact H. Qed.

  Lemma view_of_sweep s : map dec_res (sx_list (sweep c tb s)) = view s.
  Proof.
    unfold sweep. cbn [sx_list]. rewrite map_map. unfold view. fold nk.
    apply map_ext. intros i. rewrite dec_res_enc_get. reflexivity.
  Qed.

  Lemma res_of_sweep m s : map dec_res (sx_list (sx_nth (L [m; sweep c tb s]) 1)) = view s.
  Proof. apply view_of_sweep. Qed.

  Record MInv (h0 : N) (st : mst) (s : klm nat) (h : list (op nat)) : Prop := {
    mi_run : runM (klm_empty nat (c_n c) h0) h = Some s;
    mi_lo : m_lo st = lo s;
    mi_hi : m_hi st = hi s;
    mi_prev : m_prev st = view s;
    mi_hist : forall i x, (i < nk)%nat -> In (OPut (K i) x) h -> stored (m_hist st) i x = true;
    mi_disc : m_disc st = length (discardsM (klm_empty nat (c_n c) h0) h);
    mi_amap : forall i, (i < nk)%nat -> m_amap st i = amrun h (K i) }.

  Lemma reach h0 h s : runM (klm_empty nat (c_n c) h0) h = Some s -> Reachable nat Nat.eqb (c_n c) slotf mg mp s.
  Proof. intros H. exists h0, h. exact H. Qed.

  Lemma invs2 h0 h s : runM (klm_empty nat (c_n c) h0) h = Some s -> InvS2 nat (c_n c) slotf mg s.
  Proof. intros H. eapply (reachable_inv2 nat Nat.eqb Nat.eqb_eq (c_n c) slotf slotf_lt mg mp). eapply reach; exact H. Qed.

  Lemma c1_model h0 st s h : MInv h0 st s h -> cl1 c (m_lo st) (m_hi st) (m_hist st) (m_prev st) = false.
  Proof.
    intros [Hr Hl Hh Hp Hhist _ _]. rewrite Hl, Hh, Hp. apply cl1_false. intros i x Hi Hn. fold nk in Hi.
    rewrite (view_nth s i Hi) in Hn.
    destruct (get_sound_thm nat Nat.eqb Nat.eqb_eq (c_n c) slotf mg mp h0 h s (K i) x Hr Hn) as [Hin Hv].
    split; [apply Hhist; assumption|exact Hv].
  Qed.

  Lemma c7_model h0 st s h :
    MInv h0 st s h -> cl7 c (m_lo st) (m_hi st) (m_prev st) (m_amap st) (m_disc st) = false.
  Proof.
    intros [Hr Hl Hh Hp _ Hd Ha]. rewrite Hl, Hh, Hp. apply cl7_false. intros Hz i Hi. fold nk in Hi.
    rewrite (view_nth s i Hi).
    rewrite (no_discard_newest_thm nat Nat.eqb Nat.eqb_eq (c_n c) slotf slotf_lt mg mp h0 h s Hr
               (proj1 (length_zero_iff_nil _) (eq_trans (eq_sym Hd) Hz)) (K i)).
    unfold amap_get. rewrite (Ha i Hi). reflexivity.
  Qed.

  Lemma in_app_last (h : list (op nat)) a x : In x (h ++ [a]) -> In x h \/ x = a.
  Proof. intros H. apply in_app_or in H. destruct H as [H|[H|[]]]; [left; exact H|right; symmetry; exact H]. Qed.

  Lemma step_nonput h0 st s h o a s' :
    MInv h0 st s h ->
    sx_Z (sx_nth o 0) <> 0 -> (forall k l, a <> OPut k l) ->
    stepM s a = Some s' ->
    lo s' = (if sx_Z (sx_nth o 0) =? 2 then N.succ (lo s) else lo s) ->
    hi s' = (if sx_Z (sx_nth o 0) =? 3 then N.succ (hi s) else hi s) ->
    (sx_Z (sx_nth o 0) <> 2 -> forall k, lookupM s' k = lookupM s k) ->
    (sx_Z (sx_nth o 0) = 2 -> forall k, lookupM s' k = keep_valid (lo s') (hi s') (lookupM s k)) ->
    forall m, snd (mon_step c st o (L [m; sweep c tb s'])) = []
              /\ MInv h0 (fst (mon_step c st o (L [m; sweep c tb s']))) s' (h ++ [a]).
  Proof.
    intros MI Hk Ha Hs Hlo Hhi Hsame Hrel m. destruct MI as [Hr Hl Hh Hp Hhist Hdisc Ham].
    assert (Hlo' : (if sx_Z (sx_nth o 0) =? 2 then N.succ (m_lo st) else m_lo st) = lo s') by (rewrite Hlo, Hl; reflexivity).
    assert (Hhi' : (if sx_Z (sx_nth o 0) =? 3 then N.succ (m_hi st) else m_hi st) = hi s') by (rewrite Hhi, Hh; reflexivity).
    rewrite mon_step_eq. cbv zeta. rewrite res_of_sweep.
    apply Z.eqb_neq in Hk. rewrite Hk. cbn [fst snd]. rewrite Nat.add_0_r, Hlo', Hhi', Hp.
    destruct (cl345_nonput_false c (view s') (view s) (sx_nat (sx_nth o 1)) (dec_loc o) 0) as (E3 & E4 & E5).
    apply and_later.
    - constructor; cbn [m_lo m_hi m_hist m_prev m_disc m_amap].
      + rewrite (run_app nat Nat.eqb slotf mg mp), Hr. exact Hs.
      + reflexivity.
      + reflexivity.
      + reflexivity.
      + intros i x Hi Hin. apply Hhist; [exact Hi|]. apply in_app_last in Hin. destruct Hin as [Hin|Hin]; [exact Hin|].
        exfalso. apply (Ha _ _ (eq_sym Hin)).
      + rewrite (discards_app nat Nat.eqb slotf mg mp h _ s a Hr). unfold step_discards. rewrite Hs.
        destruct a as [k l| | |]; [exfalso; apply (Ha k l); reflexivity| | |]; rewrite app_nil_r; exact Hdisc.
      + intros i Hi. rewrite (amap_run_app nat Nat.eqb).
        destruct a as [k l| | |]; [exfalso; apply (Ha k l); reflexivity| | |]; apply Ham; exact Hi.
    - intros MI'. apply flz_quiet.
      + exact (c1_model _ _ _ _ MI').
      + destruct (Z.eq_dec (sx_Z (sx_nth o 0)) 2) as [E|E]; [rewrite E; reflexivity|].
        apply cl2_other_false. intros i Hi. rewrite (view_nth s' i Hi), (view_nth s i Hi). apply (Hsame E).
      + exact E3.
      + exact E4.
      + exact E5.
      + destruct (Z.eq_dec (sx_Z (sx_nth o 0)) 2) as [E|E]; [|apply cl6_other_false; exact E].
        rewrite E. apply cl6_false. intros i Hi. rewrite (view_nth s' i Hi), (view_nth s i Hi). apply (Hrel E).
      + exact (c7_model _ _ _ _ MI').
  Qed.

  Lemma step_put h0 st s h o s' r :
    MInv h0 st s h ->
    sx_Z (sx_nth o 0) = 0 -> valid (lo s) (hi s) (dec_loc o) = true ->
    putM s (K (sx_nat (sx_nth o 1))) (dec_loc o) = (s', r) ->
    snd (mon_step c st o (L [enc_put r; sweep c tb s'])) = []
    /\ MInv h0 (fst (mon_step c st o (L [enc_put r; sweep c tb s']))) s' (h ++ [hop o]).
  Proof.
    intros MI Hk V P. destruct MI as [Hr Hl Hh Hp Hhist Hdisc Ham].
    set (ki := sx_nat (sx_nth o 1)) in *. set (k := K ki) in *. set (l := dec_loc o) in *.
    assert (Ehop : hop o = OPut k l) by (unfold hop; rewrite Hk; reflexivity).
    rewrite Ehop.
    pose proof (invs2 h0 h s Hr) as HI2.
    destruct (klm_put_window nat Nat.eqb slotf mg mp s k l s' r P) as [Elo Ehi].
    assert (Hs : stepM s (OPut k l) = Some s') by (cbn [step]; rewrite V, P; reflexivity).
    set (nd := match discarded r with Some _ => 1%nat | None => 0%nat end).
    set (hist' := map (fun j => (j, l)) (filter (same_key c ki) (seq 0 (length (c_keys c)))) ++ m_hist st).
    (* what the model guarantees about the lookups *)
    assert (KK : forall i, (i < nk)%nat -> Nat.eqb k (K i) = same_key c ki i) by (intros i Hi; exact (canon_same c i ki Hi)).
    assert (Kne : forall i, (i < nk)%nat -> same_key c ki i = false -> K i <> k).
    { intros i Hi Hsk E. rewrite <- (KK i Hi), E, Nat.eqb_refl in Hsk. discriminate. }
    assert (Keq : forall i, (i < nk)%nat -> same_key c ki i = true -> K i = k).
    { intros i Hi Hsk. rewrite <- (KK i Hi) in Hsk. apply Nat.eqb_eq in Hsk. symmetry. exact Hsk. }
    assert (Frame : forall i, (i < nk)%nat -> same_key c ki i = false ->
              (forall d, discarded r = Some d -> rkey d <> K i) -> lookupM s' (K i) = lookupM s (K i)).
    { intros i Hi Hsk Hd.
      apply (put_frame_state nat Nat.eqb Nat.eqb_eq (c_n c) slotf slotf_lt mg mp s k l s' r (K i) HI2 V P
               (Kne i Hi Hsk) Hd). }
    rewrite mon_step_eq. cbv zeta. rewrite res_of_sweep, Hk.
    change (sx_nth (L [enc_put r; sweep c tb s']) 0) with (enc_put r).
    cbn [Z.eqb fst snd]. fold ki. fold l. fold hist'. rewrite ndisc_enc_put. fold nd. rewrite Hp.
    apply and_later.
    - constructor; cbn [m_lo m_hi m_hist m_prev m_disc m_amap].
      + rewrite (run_app nat Nat.eqb slotf mg mp), Hr. exact Hs.
      + rewrite Hl. symmetry. exact Elo.
      + rewrite Hh. symmetry. exact Ehi.
      + reflexivity.
      + intros i x Hi Hin. unfold hist'. rewrite stored_app. apply in_app_last in Hin. destruct Hin as [Hin|Hin].
        * rewrite (Hhist i x Hi Hin). apply orb_true_r.
        * inversion Hin as [[Ek El]]. rewrite stored_in; [reflexivity|].
          apply in_map_iff. exists i. split; [reflexivity|]. apply filter_In. split; [apply in_seq0; exact Hi|].
          rewrite <- (KK i Hi), Ek. apply Nat.eqb_refl.
      + rewrite (discards_app nat Nat.eqb slotf mg mp h _ s _ Hr). unfold step_discards.
        rewrite Hs, P, app_length, <- Hdisc. unfold nd. cbn [snd]. destruct (discarded r); reflexivity.
      + intros i Hi. rewrite (amap_run_app nat Nat.eqb). unfold amap_put.
        rewrite (same_key_sym c i ki), <- (KK i Hi), (Nat.eqb_sym k (K i)), (Ham i Hi). reflexivity.
    - intros MI'. apply flz_quiet.
      + exact (c1_model _ _ _ _ MI').
      + apply cl2_put_false.
        * intros Hz i Hi Hsk. rewrite (view_nth s' i Hi), (view_nth s i Hi). apply (Frame i Hi Hsk).
          intros d Hd. unfold nd in Hz. rewrite Hd in Hz. discriminate.
        * intros i j Hi Hj Hsi Hsj Hni Hnj.
          rewrite (view_nth s' i Hi), (view_nth s i Hi) in Hni. rewrite (view_nth s' j Hj), (view_nth s j Hj) in Hnj.
          rewrite <- (canon_same c j i Hj). fold K. apply Nat.eqb_eq.
          destruct (discarded r) as [d|] eqn:D.
          -- destruct (Nat.eq_dec (rkey d) (K i)) as [Ei|Ei].
             ++ destruct (Nat.eq_dec (rkey d) (K j)) as [Ej|Ej]; [congruence|].
                exfalso. apply Hnj. apply (Frame j Hj Hsj). intros d' Hq. injection Hq as <-. exact Ej.
             ++ exfalso. apply Hni. apply (Frame i Hi Hsi). intros d' Hq. injection Hq as <-. exact Ei.
          -- exfalso. apply Hni. apply (Frame i Hi Hsi). intros d' Hq. discriminate.
      + apply cl3_false. intros i Hi Hsk Hn.
        rewrite (view_nth s' i Hi), (view_nth s i Hi) in Hn. rewrite (view_nth s' i Hi), (view_nth s i Hi).
        destruct (lookupM s' (K i)) as [x|] eqn:Now; [|destruct (lookupM s (K i)); reflexivity].
        destruct (put_falls_back_state nat Nat.eqb Nat.eqb_eq (c_n c) slotf slotf_lt mg mp s k l s' r (K i) x HI2 V P Now)
          as [[Ek _]|(pv & Hpv & Hx)]; [exfalso; apply (Kne i Hi Hsk Ek)|].
        rewrite Hpv in Hn |- *. destruct Hx as [->|Hx]; [exfalso; apply Hn; reflexivity|exact Hx].
      + apply cl4_false. intros i p Hi Hsk Hn Hpv.
        rewrite (view_nth s' i Hi), (view_nth s i Hi) in Hn. rewrite (view_nth s i Hi) in Hpv.
        destruct (older l p) eqn:O; [|reflexivity]. exfalso. apply Hn. rewrite Hpv.
        apply (put_newer_kept nat Nat.eqb Nat.eqb_eq (c_n c) slotf slotf_lt mg mp s k l s' r (K i) p HI2 V P Hpv O).
      + apply cl5_false. intros i Hi Hsk.
        rewrite (view_nth s' i Hi), (view_nth s i Hi), (Keq i Hi Hsk), newest_of_eq.
        destruct (put_own_key nat Nat.eqb Nat.eqb_eq (c_n c) slotf slotf_lt mg mp s k l s' r HI2 V P)
          as [H1|[H1 [d [Hd _]]]]; [left; exact H1|right].
        split; [unfold nd; rewrite Hd; apply Nat.lt_0_1|exact H1].
      + apply cl6_other_false. discriminate.
      + exact (c7_model _ _ _ _ MI').
  Qed.
End Hist.

Fixpoint wf_ops (lo hi : N) (ops : list sx) : bool :=
  match ops with
  | [] => true
  | o :: t =>
      let z := sx_Z (sx_nth o 0) in
      if z =? 0 then valid lo hi (dec_loc o) && wf_ops lo hi t
      else if z =? 1 then wf_ops lo hi t
      else if z =? 2 then (lo <? hi)%N && wf_ops (N.succ lo) hi t
      else if z =? 3 then wf_ops lo (N.succ hi) t
      else false
  end.

Section DoOp.
  Variable c : cfg06.
  Let tb := i_tab c.

  Lemma do_op_put s o :
    sx_Z (sx_nth o 0) = 0 -> valid (lo s) (hi s) (dec_loc o) = true ->
    do_op c tb s o =
    (let '(s', r) := klm_put nat Nat.eqb (i_slot tb) (c_maxget c) (c_maxput c) s
                             (i_key c (sx_nat (sx_nth o 1))) (dec_loc o) in (s', enc_put r)).
  Proof. intros E V. unfold do_op. rewrite E. cbv beta iota zeta. rewrite V. reflexivity. Qed.

  Lemma do_op_get s o :
    sx_Z (sx_nth o 0) = 1 -> exists m, do_op c tb s o = (s, m).
  Proof. intros E. unfold do_op. rewrite E. cbv beta iota zeta. eexists. reflexivity. Qed.

  Lemma do_op_release s o :
    sx_Z (sx_nth o 0) = 2 -> (lo s <? hi s)%N = true -> do_op c tb s o = (klm_release nat s, no_metrics false).
  Proof. intros E V. unfold do_op. rewrite E. cbv beta iota zeta. rewrite V. reflexivity. Qed.

  Lemma do_op_grow s o :
    sx_Z (sx_nth o 0) = 3 -> do_op c tb s o = (klm_grow nat s, no_metrics false).
  Proof. intros E. unfold do_op. rewrite E. reflexivity. Qed.
End DoOp.

Lemma mon_ops_quiet c st o ob ops obs :
  snd (mon_step c st o ob) = [] -> mon_ops c st (o :: ops) (ob :: obs) = mon_ops c (fst (mon_step c st o ob)) ops obs.
Proof. intros H. cbn [mon_ops]. destruct (mon_step c st o ob) as [st' v]. cbn [fst snd] in *. subst v. reflexivity. Qed.

Section HistRun.
  Variable c : cfg06.
  Hypothesis n_pos : (0 < c_n c)%nat.
  Let slotf : nat -> nat -> nat := i_slot (i_tab c).
  Let mg := c_maxget c.
  Let mp := c_maxput c.

  Lemma run_ops_silent : forall ops h0 st s h,
    MInv c h0 st s h -> wf_ops (lo s) (hi s) ops = true ->
    mon_ops c st ops (run_ops c (i_tab c) s ops) = [].
  Proof.
    induction ops as [|o ops IH]; intros h0 st s h MI Hwf; [reflexivity|].
    cbn [wf_ops] in Hwf. cbv zeta in Hwf. cbn [run_ops].
    pose proof (proj1 (invs2 c n_pos h0 h s (mi_run c h0 st s h MI))) as HI.
    destruct (sx_Z (sx_nth o 0) =? 0) eqn:E0.
    { apply Z.eqb_eq in E0. apply andb_true_iff in Hwf. destruct Hwf as [V Hwf].
      rewrite (do_op_put c s o E0 V).
      destruct (klm_put nat Nat.eqb (i_slot (i_tab c)) (c_maxget c) (c_maxput c) s
                        (i_key c (sx_nat (sx_nth o 1))) (dec_loc o)) as [s' r] eqn:P.
      destruct (step_put c n_pos h0 st s h o s' r MI E0 V P) as [Hv HM]. rewrite (mon_ops_quiet _ _ _ _ _ _ Hv).
      destruct (klm_put_window nat Nat.eqb _ _ _ s _ _ s' r P) as [Elo Ehi].
      apply (IH h0 _ s' _ HM). rewrite Elo, Ehi. exact Hwf. }
    destruct (sx_Z (sx_nth o 0) =? 1) eqn:E1.
    { apply Z.eqb_eq in E1. destruct (do_op_get c s o E1) as [m ->].
      destruct (step_nonput c n_pos h0 st s h o (OGet (i_key c (sx_nat (sx_nth o 1)))) s MI) with (m := m) as [Hv HM].
      - rewrite E1. discriminate.
      - intros k l. discriminate.
      - reflexivity.
      - rewrite E1. reflexivity.
      - rewrite E1. reflexivity.
      - intros _ k. reflexivity.
      - intros E. rewrite E1 in E. discriminate.
      - rewrite (mon_ops_quiet _ _ _ _ _ _ Hv). apply (IH h0 _ s _ HM). exact Hwf. }
    destruct (sx_Z (sx_nth o 0) =? 2) eqn:E2.
    { apply Z.eqb_eq in E2. apply andb_true_iff in Hwf. destruct Hwf as [V Hwf].
      rewrite (do_op_release c s o E2 V).
      destruct (step_nonput c n_pos h0 st s h o ORelease (klm_release nat s) MI) with (m := no_metrics false) as [Hv HM].
      - rewrite E2. discriminate.
      - intros k l. discriminate.
      - cbn [step]. rewrite V. reflexivity.
      - rewrite E2. reflexivity.
      - rewrite E2. reflexivity.
      - intros E. contradiction.
      - intros _ k. apply (release_exact_state nat Nat.eqb Nat.eqb_eq (c_n c) slotf mg s k HI).
      - rewrite (mon_ops_quiet _ _ _ _ _ _ Hv). apply (IH h0 _ (klm_release nat s) _ HM). exact Hwf. }
    destruct (sx_Z (sx_nth o 0) =? 3) eqn:E3; [|discriminate].
    apply Z.eqb_eq in E3. rewrite (do_op_grow c s o E3).
    destruct (step_nonput c n_pos h0 st s h o OGrow (klm_grow nat s) MI) with (m := no_metrics false) as [Hv HM].
    - rewrite E3. discriminate.
    - intros k l. discriminate.
    - reflexivity.
    - rewrite E3. reflexivity.
    - rewrite E3. reflexivity.
    - intros _ k. apply (grow_frame_state nat Nat.eqb (c_n c) slotf mg s k HI).
    - intros E. rewrite E3 in E. discriminate.
    - rewrite (mon_ops_quiet _ _ _ _ _ _ Hv). apply (IH h0 _ (klm_grow nat s) _ HM). exact Hwf.
  Qed.

  Lemma minv_init h0 :
    MInv c h0 {| m_lo := 0; m_hi := h0; m_hist := []; m_prev := map (fun _ => None) (c_keys c); m_disc := O;
                 m_amap := amap_empty nat |} (klm_empty nat (c_n c) h0) [].
  Proof.
    constructor; cbn [m_lo m_hi m_hist m_prev m_disc m_amap]; try reflexivity.
    - rewrite map_const_seq. unfold view. apply map_ext. intros i.
      symmetry. apply (lookup_empty nat Nat.eqb (c_n c) slotf mg).
    - intros i x _ [].
  Qed.
End HistRun.

Lemma mon_step_nokeys c st o ob : c_keys c = [] -> snd (mon_step c st o ob) = [].
Proof.
  intros Hk. rewrite mon_step_eq. cbv zeta. cbn [snd].
  unfold cl1, cl2, cl3, cl4, cl5, cl6, cl7, changed_. rewrite Hk.
  cbn [length seq filter forallb existsb negb is_nil]. rewrite !andb_false_r.
  destruct (sx_Z (sx_nth o 0) =? 0); destruct (sx_Z (sx_nth o 0) =? 2); reflexivity.
Qed.

Lemma mon_ops_nokeys c : c_keys c = [] -> forall ops obs st, mon_ops c st ops obs = [].
Proof.
  intros Hk. induction ops as [|o ops IH]; intros [|ob obs] st; try reflexivity.
  rewrite (mon_ops_quiet _ _ _ _ _ _ (mon_step_nokeys c st o ob Hk)). apply IH.
Qed.

Definition wf06_hist (inp : sx) : bool :=
  let c := dec_cfg inp in wf_ops 0 (c_h0 c) (c_ops c).

Theorem mon06_hist_silent : forall inp, wf06_hist inp = true -> mon06_hist inp (run06_hist inp) = [].
Proof.
  intros inp Hwf. unfold mon06_hist. cbv zeta.
  destruct (sx_eqb (run06_hist inp) (L [A (-1)])) eqn:Ep; [reflexivity|].
  unfold run06_hist in *. cbv zeta in *. set (c := dec_cfg inp) in *.
  destruct (Nat.eqb (c_n c) 0 && negb (is_nil (c_ops c)) && negb (is_nil (c_keys c))) eqn:Ec.
  { cbn in Ep. discriminate. }
  cbn [sx_list].
  destruct (Nat.eqb (c_n c) 0) eqn:En.
  - cbn [andb] in Ec. apply andb_false_iff in Ec. destruct Ec as [Ec|Ec]; apply negb_false_iff in Ec.
    + destruct (c_ops c); [reflexivity|discriminate].
    + rewrite (mon_ops_nokeys c); [reflexivity|]. destruct (c_keys c); [reflexivity|discriminate].
  - apply Nat.eqb_neq in En. apply Nat.neq_0_lt_0 in En.
    rewrite (run_ops_silent c En (c_ops c) (c_h0 c) _ _ [] (minv_init c (c_h0 c))); [reflexivity|].
    exact Hwf.
Qed.

Definition wf06 (inp : sx) : Prop :=
  if sx_Z (sx_nth inp 0) =? 0 then wf06_hist inp = true
  else (codec_compares inp = true -> codec_fits (dec_drec inp)).

Theorem mon06_silent : forall inp, wf06 inp -> mon06 inp (run06 inp) = [].
Proof.
  intros inp H. unfold wf06 in H. unfold mon06, run06. destruct (sx_Z (sx_nth inp 0) =? 0).
  - apply mon06_hist_silent. exact H.
  - apply codec_mon_silent. exact H.
Qed.

Lemma mon06_codec_case inp :
  (sx_Z (sx_nth inp 0) =? 0) = false -> mon06 inp (run06 inp) = codec_mon inp (codec_case inp).
Proof. intros E. unfold mon06, run06. rewrite E. reflexivity. Qed.

(** Every hypothesis is needed.
    History cases (the harness refuses all three inputs: it validates the
    operations against the block window before running anything).
    One key, one record. *)
Definition ex_hist (h0 : Z) (ops : list sx) : sx :=
  L [A 0; A 0; A 1; A 2; A 2; A 0; A h0; L [L [A 1]]; L ops].

(** a Put naming a block outside the window: the model leaves the index alone, clause 5 fires *)
Example mon06_needs_put_in_window :
  let inp := ex_hist 1 [L [A 0; A 0; A 5; A 0; A 1]] in
  ~ wf06 inp /\ mon06 inp (run06 inp) = [5].
Proof. vm_compute. split; [discriminate|reflexivity]. Qed.

(** a PopFront without blocks: the monitor's window drifts from the model's, clauses 1 and 7 fire later *)
Example mon06_needs_pop_with_block :
  let inp := ex_hist 0 [L [A 2]; L [A 3]; L [A 0; A 0; A 0; A 0; A 1]] in
  ~ wf06 inp /\ mon06 inp (run06 inp) = [1; 7].
Proof. vm_compute. split; [discriminate|reflexivity]. Qed.

(** an operation kind other than 0..3 (the model treats it as PushBack, the monitor as a no-op) *)
Example mon06_needs_known_kinds :
  let inp := ex_hist 0 [L [A 4]; L [A 0; A 0; A 0; A 0; A 1]] in
  ~ wf06 inp /\ mon06 inp (run06 inp) = [1; 7].
Proof. vm_compute. split; [discriminate|reflexivity]. Qed.

(** non-vacuity: a well-formed history with a collision, a discard, a release *)
Example wf06_hist_example :
  wf06 (L [A 0; A 0; A 2; A 2; A 3; A 7; A 1; L [L [A 1]; L [A 2]; L [A 3]; L [A 1]];
           L [L [A 0; A 0; A 0; A 0; A 1]; L [A 0; A 1; A 0; A 1; A 1]; L [A 3]; L [A 0; A 2; A 1; A 0; A 1];
              L [A 1; A 3]; L [A 0; A 3; A 1; A 5; A 2]; L [A 2]; L [A 1; A 0]]]).
Proof. vm_compute. reflexivity. Qed.

(** Codec cases (the harness refuses all four inputs: keys must have 32
    bytes, attempt < 2^32, offset and size < 2^63).  Same seed, no damage. *)
Definition ex_codec (key : list sx) (att off size : Z) : sx :=
  L [A 1; A 0; A 0; L key; A att; A off; A size; A 7; A 7; A 66].

Example mon06_needs_key_32_bytes :
  let inp := ex_codec (List.repeat (A 7) 31) 0 0 0 in ~ wf06 inp /\ mon06 inp (run06 inp) = [8].
Proof.
  intros inp. split.
  - intros H. destruct (H eq_refl) as [H1 _]. discriminate H1.
  - rewrite mon06_codec_case by reflexivity. unfold codec_mon, codec_case, decode. cbv zeta.
    (* whether or not the checksum matches: nothing is read back, or a key of 32 bytes where 31 were written *)
    destruct (checksum _ _ =? _)%N; reflexivity.
Qed.
Example mon06_needs_attempt_32_bits :
  let inp := ex_codec (List.repeat (A 7) 32) (2 ^ 32) 0 0 in ~ wf06 inp /\ mon06 inp (run06 inp) = [8].
Proof.
  intros inp. split.
  - intros H. destruct (H eq_refl) as (_ & H1 & _). exact (N.lt_irrefl _ H1).
  - rewrite mon06_codec_case, codec_mon_model by reflexivity. reflexivity.
Qed.
Example mon06_needs_offset_64_bits :
  let inp := ex_codec (List.repeat (A 7) 32) 0 (2 ^ 64) 0 in ~ wf06 inp /\ mon06 inp (run06 inp) = [8].
Proof.
  intros inp. split.
  - intros H. destruct (H eq_refl) as (_ & _ & H1 & _). exact (N.lt_irrefl _ H1).
  - rewrite mon06_codec_case, codec_mon_model by reflexivity. reflexivity.
Qed.
Example mon06_needs_size_64_bits :
  let inp := ex_codec (List.repeat (A 7) 32) 0 0 (2 ^ 64) in ~ wf06 inp /\ mon06 inp (run06 inp) = [8].
Proof.
  intros inp. split.
  - intros H. destruct (H eq_refl) as (_ & _ & _ & H1). exact (N.lt_irrefl _ H1).
  - rewrite mon06_codec_case, codec_mon_model by reflexivity. reflexivity.
Qed.

(** non-vacuity: epoch id and blocks-from-last beyond their fields and a key
    "byte" of 300 are harmless *)
Example wf06_codec_example :
  wf06 (L [A 1; A (2 ^ 40); A (2 ^ 20); L (A 300 :: List.repeat (A 7) 31); A 1; A 2; A 3; A 7; A 7; A 66]).
Proof. vm_compute. intros _. repeat split. Qed.

Theorem judge06_agree_not_violates : forall inp obs,
  wf06 inp -> judged_agree (judge06 inp obs) = true -> judged_violates (judge06 inp obs) = false.
Proof.
  intros inp obs H. unfold judge06. apply judge_det_agree_not_violates. apply mon06_silent. exact H.
Qed.
