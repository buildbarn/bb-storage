(** C04P, "the monitor is silent on the model" — part 1: the monitor against
    an abstract accounting of regions.

    [acc]: which blocks (id, region) are listed, popped and waiting for their
    Release(), released; the free regions; the state write in flight (call
    number, how many waiting blocks it will release, the regions it lists).
    [prel m c]: the monitor's bookkeeping is consistent with the accounting and
    no clause has fired.  One lemma per event of the log: PopFront, NewBlock,
    completion of a state write, Release(), start of a state write, and the
    capacity check at a quiescent point.  Pure list reasoning; the model enters
    in part 2. *)
From Coq Require Import List NArith ZArith Bool Arith Lia Permutation.
From BBS Require Import Common.Sx Persist.PBL Persist.PBLProofs Persist.Syncer Run.R07 Run.R04P Run.R07MonBase.
Import ListNotations.
Local Open Scope nat_scope.

Record acc := mkAcc {
  c_listed : list (nat * Z);
  c_rel : list (nat * Z);
  c_pend : list (nat * Z);
  c_free : list Z;
  c_wr : option (nat * nat * list Z)
}.

Definition held (c : acc) : list Z := map snd (c_listed c ++ c_pend c).
Definition pop_pos (m : pmon) (q : nat * Z) (pp : nat) : Prop := nlookup (fst q) (pm_pop m) = Some pp.

Record prel (nreg : nat) (m : pmon) (c : acc) : Prop := mkPrel {
  p_listed : pm_listed m = length (c_listed c);
  p_viol : pm_viol m = [];
  p_pop : forall q, In q (c_rel c ++ c_pend c) ->
            exists pp, pop_pos m q pp /\ pp < pm_pos m /\ exists lp, pm_lastpop m = Some lp /\ pp <= lp;
  p_rel : forall id, natmem id (pm_rel m) = true -> In id (map fst (c_rel c));
  p_ids : NoDup (map fst (c_rel c ++ c_pend c ++ c_listed c));
  p_done : forall w, In w (pm_done m) -> fst w < pm_pos m /\
             forall q pp, In q (c_pend c) -> pop_pos m q pp -> fst w < pp;
  p_durable : forall e, In e (snd (pm_durable m)) -> In (fst e) (held c);
  p_regions : NoDup (c_free c ++ held c);
  p_count : length (c_free c) + length (c_listed c) + length (c_pend c) = nreg;
  p_wr : forall n k regs, c_wr c = Some (n, k, regs) ->
           exists w, nlookup_w n (pm_cur m) = Some w /\ map fst (snd w) = regs /\ fst w < pm_pos m /\ k <= length (c_pend c)
             /\ (forall r, In r regs -> In r (map snd (c_listed c)) \/ In r (map snd (skipn k (c_pend c))))
             /\ (forall q pp, In q (firstn k (c_pend c)) -> pop_pos m q pp -> pp < fst w)
             /\ (forall q pp, In q (skipn k (c_pend c)) -> pop_pos m q pp -> fst w < pp)
}.

Lemma nlookup_cons_ne k k' v l : k <> k' -> nlookup k ((k', v) :: l) = nlookup k l.
Proof. intros H. cbn. destruct (Nat.eqb_spec k k'); [contradiction|reflexivity]. Qed.

Lemma nlookup_cons_eq k v l : nlookup k ((k, v) :: l) = Some v.
Proof. cbn. rewrite Nat.eqb_refl. reflexivity. Qed.

Lemma natmem_in n l : natmem n l = true <-> In n l.
Proof.
  unfold natmem. rewrite existsb_exists. split.
  - intros [y [Hy E]]. apply Nat.eqb_eq in E. subst. exact Hy.
  - intros H. exists n. split; [exact H|apply Nat.eqb_refl].
Qed.

Lemma existsb_false {A} (f : A -> bool) l : (forall x, In x l -> f x = false) -> existsb f l = false.
Proof.
  intros H. induction l as [|a r IH]; [reflexivity|]. cbn. rewrite H by (left; reflexivity). cbn.
  apply IH. intros x Hx. apply H. right. exact Hx.
Qed.

Lemma sx_Z_A z : sx_Z (A z) = z. Proof. reflexivity. Qed.

Lemma in_firstn {A} n : forall (l : list A) x, In x (firstn n l) -> In x l.
Proof. induction n as [|n IH]; intros [|a l] x H; cbn in *; auto; try contradiction. destruct H; auto. Qed.

Lemma in_skipn {A} n : forall (l : list A) x, In x (skipn n l) -> In x l.
Proof. induction n as [|n IH]; intros [|a l] x H; cbn in *; auto. Qed.

Lemma NoDup_snoc_list {A} (l : list A) z : NoDup l -> ~ In z l -> NoDup (l ++ [z]).
Proof.
  induction l as [|a r IH]; intros Hn Hi; cbn; [constructor; [intros []|constructor]|].
  inversion Hn; subst. constructor.
  - intros H. apply in_app_or in H. destruct H as [H|[H|[]]]; [contradiction|subst; apply Hi; left; reflexivity].
  - apply IH; [assumption|]. intros H. apply Hi. right. exact H.
Qed.

Lemma NoDup_app_disj {A} (l1 l2 : list A) x : NoDup (l1 ++ l2) -> In x l1 -> In x l2 -> False.
Proof.
  induction l1 as [|a r IH]; intros Hn H1 H2; [destruct H1|]. cbn in Hn. inversion Hn; subst.
  destruct H1 as [->|H1]; [apply H3; apply in_or_app; right; exact H2|eapply IH; eauto].
Qed.

Lemma NoDup_app_r {A} (l1 l2 : list A) : NoDup (l1 ++ l2) -> NoDup l2.
Proof. induction l1 as [|a r IH]; intros Hn; [exact Hn|]. cbn in Hn. inversion Hn; subst. auto. Qed.

Lemma map_skipn_in {A B} (f : A -> B) n (l : list A) x : In x (map f (skipn n l)) <-> In x (skipn n (map f l)).
Proof. rewrite <- skipn_map. reflexivity. Qed.

(* the monitor's step on an event given as a literal list: the fields are read off by computation *)
Ltac pm_event_at :=
  unfold pm_event; cbn [sx_nth sx_list nth sx_Z sx_bool of_bool Z.eqb negb]; rewrite sx_nat_of_nat.

Lemma ev_pop nreg m c id off rest : prel nreg m c -> c_listed c = (id, off) :: rest ->
  prel nreg (pm_event m (L [A 3; of_nat id; A off]))
       (mkAcc rest (c_rel c) (c_pend c ++ [(id, off)]) (c_free c) (c_wr c)).
Proof.
  intros [P1 P2 P3 P4 P5 P6 P7 P8 P9 P10] El.
  pm_event_at.
  assert (Hfresh : forall q, In q (c_rel c ++ c_pend c) -> fst q <> id).
  { intros q Hq E. rewrite El in P5. rewrite app_assoc, map_app in P5. cbn [map fst] in P5.
    apply NoDup_remove_2 in P5. apply P5. apply in_or_app. left. rewrite <- E. apply in_map. exact Hq. }
  constructor; cbn [pm_listed pm_viol pm_pop pm_pos pm_lastpop pm_rel pm_done pm_durable pm_cur
                    c_listed c_rel c_pend c_free c_wr].
  - rewrite P1, El. reflexivity.
  - exact P2.
  - intros q Hq. rewrite app_assoc in Hq. apply in_app_or in Hq. destruct Hq as [Hq|[<-|[]]].
    + destruct (P3 q Hq) as [pp [H1 [H2 [lp [H3 H4]]]]]. exists pp. unfold pop_pos in *. cbn [pm_pop].
      rewrite nlookup_cons_ne by (apply Hfresh; exact Hq).
      split; [exact H1|split; [lia|exists (pm_pos m); split; [reflexivity|lia]]].
    + exists (pm_pos m). unfold pop_pos. cbn [pm_pop fst]. rewrite nlookup_cons_eq.
      split; [reflexivity|split; [lia|exists (pm_pos m); split; [reflexivity|lia]]].
  - exact P4.
  - rewrite El in P5. rewrite <- (app_assoc (c_pend c)). cbn [app]. exact P5.
  - intros w Hw. destruct (P6 w Hw) as [H1 H2]. split; [lia|]. intros q pp Hq Hp.
    apply in_app_or in Hq. destruct Hq as [Hq|[<-|[]]].
    + unfold pop_pos in Hp. cbn [pm_pop] in Hp.
      rewrite nlookup_cons_ne in Hp by (apply Hfresh; apply in_or_app; right; exact Hq). eapply H2; eauto.
    + unfold pop_pos in Hp. cbn [pm_pop fst] in Hp. rewrite nlookup_cons_eq in Hp. inversion Hp; subst. exact H1.
  - intros e He. specialize (P7 e He). unfold held in *. cbn [c_listed c_pend]. rewrite El in P7.
    eapply Permutation_in; [|exact P7]. apply Permutation_map. rewrite app_assoc.
    cbn [app]. apply Permutation_cons_append.
  - unfold held in *. cbn [c_listed c_pend]. rewrite El in P8.
    eapply Permutation_NoDup; [|exact P8]. apply Permutation_app_head. apply Permutation_map.
    rewrite app_assoc. cbn [app]. apply Permutation_cons_append.
  - rewrite El in P9. cbn [length] in P9. rewrite app_length. cbn. lia.
  - intros n k regs Hwr. destruct (P10 n k regs Hwr) as [w [H1 [H2 [H3 [H4 [H5 [H6 H7]]]]]]].
    exists w. split; [exact H1|split; [exact H2|split; [lia|split; [rewrite app_length; cbn; lia|split; [|split]]]]].
    + intros r Hr. rewrite skipn_app. replace (k - length (c_pend c)) with 0 by lia. cbn [skipn].
      destruct (H5 r Hr) as [H|H].
      * rewrite El in H. cbn [map] in H. destruct H as [<-|H]; [|left; exact H].
        right. rewrite map_app. apply in_or_app. right. left. reflexivity.
      * right. rewrite map_app. apply in_or_app. left. exact H.
    + intros q pp Hq Hp. rewrite firstn_app in Hq. replace (k - length (c_pend c)) with 0 in Hq by lia.
      cbn [firstn] in Hq. rewrite app_nil_r in Hq.
      unfold pop_pos in Hp. cbn [pm_pop] in Hp. rewrite nlookup_cons_ne in Hp.
      * eapply H6; eauto.
      * apply Hfresh. apply in_or_app. right. eapply in_firstn; eauto.
    + intros q pp Hq Hp. rewrite skipn_app in Hq. replace (k - length (c_pend c)) with 0 in Hq by lia.
      cbn [skipn] in Hq. apply in_app_or in Hq. destruct Hq as [Hq|[<-|[]]].
      * unfold pop_pos in Hp. cbn [pm_pop] in Hp. rewrite nlookup_cons_ne in Hp.
        -- eapply H7; eauto.
        -- apply Hfresh. apply in_or_app. right. eapply in_skipn; eauto.
      * unfold pop_pos in Hp. cbn [pm_pop fst] in Hp. rewrite nlookup_cons_eq in Hp. inversion Hp; subst. exact H3.
Qed.

Lemma ev_push nreg m c id off f' : prel nreg m c -> c_free c = off :: f' ->
  ~ In id (map fst (c_rel c ++ c_pend c ++ c_listed c)) ->
  prel nreg (pm_event m (L [A 1; of_nat id; A off]))
       (mkAcc (c_listed c ++ [(id, off)]) (c_rel c) (c_pend c) f' (c_wr c)).
Proof.
  intros [P1 P2 P3 P4 P5 P6 P7 P8 P9 P10] Ef Hfresh.
  pm_event_at.
  assert (Hnl : lists_region (pm_durable m) off = false).
  { unfold lists_region. apply existsb_false. intros e He. apply Z.eqb_neq. intros E.
    specialize (P7 e He). rewrite E in P7. rewrite Ef in P8. cbn [app] in P8. apply NoDup_cons_iff in P8.
    apply (proj1 P8). apply in_or_app. right. exact P7. }
  rewrite Hnl. cbn [andb]. rewrite app_nil_r.
  constructor; cbn [pm_listed pm_viol pm_pop pm_pos pm_lastpop pm_rel pm_done pm_durable pm_cur
                    c_listed c_rel c_pend c_free c_wr].
  - rewrite P1, app_length. cbn. lia.
  - exact P2.
  - intros q Hq. destruct (P3 q Hq) as [pp [H1 [H2 H3]]]. exists pp. split; [exact H1|split; [lia|exact H3]].
  - exact P4.
  - rewrite !app_assoc. rewrite map_app. cbn [map fst]. apply NoDup_snoc_list; [rewrite <- !app_assoc; exact P5|].
    rewrite <- !app_assoc. exact Hfresh.
  - intros w Hw. destruct (P6 w Hw) as [H1 H2]. split; [lia|exact H2].
  - intros e He. specialize (P7 e He). unfold held in *. cbn [c_listed c_pend].
    rewrite map_app in *. apply in_app_or in P7. apply in_or_app. destruct P7 as [H|H]; [left|right; exact H].
    rewrite map_app. apply in_or_app. left. exact H.
  - unfold held in *. cbn [c_listed c_pend]. rewrite Ef in P8. cbn [app] in P8.
    eapply Permutation_NoDup; [|exact P8].
    rewrite !map_app. cbn [map snd].
    transitivity (f' ++ off :: map snd (c_listed c) ++ map snd (c_pend c)); [apply Permutation_middle|].
    apply Permutation_app_head. rewrite <- app_assoc. cbn [app]. apply Permutation_middle.
  - rewrite Ef in P9. cbn [length] in P9. rewrite app_length. cbn. lia.
  - intros n k regs Hwr. destruct (P10 n k regs Hwr) as [w [H1 [H2 [H3 [H4 [H5 [H6 H7]]]]]]].
    exists w. split; [exact H1|split; [exact H2|split; [lia|split; [exact H4|split; [|split; [exact H6|exact H7]]]]]].
    intros r Hr. destruct (H5 r Hr) as [H|H]; [left|right; exact H]. rewrite map_app. apply in_or_app. left. exact H.
Qed.

(** after a successful completion [k] Release() calls are due: the relation in between *)
Record prelD (nreg : nat) (m : pmon) (c : acc) (k : nat) (w : wstate) : Prop := mkPrelD {
  d_listed : pm_listed m = length (c_listed c);
  d_viol : pm_viol m = [];
  d_pop : forall q, In q (c_rel c ++ c_pend c) ->
            exists pp, pop_pos m q pp /\ pp < pm_pos m /\ exists lp, pm_lastpop m = Some lp /\ pp <= lp;
  d_rel : forall id, natmem id (pm_rel m) = true -> In id (map fst (c_rel c));
  d_ids : NoDup (map fst (c_rel c ++ c_pend c ++ c_listed c));
  d_done : exists dn, pm_done m = w :: dn /\ pm_durable m = w /\ fst w < pm_pos m /\
             forall w', In w' dn -> fst w' < pm_pos m /\ forall q pp, In q (c_pend c) -> pop_pos m q pp -> fst w' < pp;
  d_regions : NoDup (c_free c ++ held c);
  d_count : length (c_free c) + length (c_listed c) + length (c_pend c) = nreg;
  d_wr : c_wr c = None;
  d_w : k <= length (c_pend c)
        /\ (forall r, In r (map fst (snd w)) -> In r (map snd (c_listed c)) \/ In r (map snd (skipn k (c_pend c))))
        /\ (forall q pp, In q (firstn k (c_pend c)) -> pop_pos m q pp -> pp < fst w)
        /\ (forall q pp, In q (skipn k (c_pend c)) -> pop_pos m q pp -> fst w < pp)
}.

Lemma ev_done_ok nreg m c n k regs : prel nreg m c -> c_wr c = Some (n, k, regs) ->
  exists w, prelD nreg (pm_event m (L [A 5; of_nat n; of_bool true]))
                  (mkAcc (c_listed c) (c_rel c) (c_pend c) (c_free c) None) k w.
Proof.
  intros [P1 P2 P3 P4 P5 P6 P7 P8 P9 P10] Ew.
  destruct (P10 n k regs Ew) as [w [H1 [H2 [H3 [H4 [H5 [H6 H7]]]]]]].
  exists w. pm_event_at. rewrite H1.
  constructor; cbn [pm_listed pm_viol pm_pop pm_pos pm_lastpop pm_rel pm_done pm_durable pm_cur
                    c_listed c_rel c_pend c_free c_wr]; auto.
  - intros q Hq. destruct (P3 q Hq) as [pp [G1 [G2 G3]]]. exists pp. split; [exact G1|split; [lia|exact G3]].
  - exists (pm_done m). split; [reflexivity|]. split; [reflexivity|]. split; [lia|].
    intros w' Hw'. destruct (P6 w' Hw') as [G1 G2]. split; [lia|exact G2].
  - rewrite <- H2 in H5. auto.
Qed.

Lemma ev_done_fail nreg m c n k regs : prel nreg m c -> c_wr c = Some (n, k, regs) ->
  prel nreg (pm_event m (L [A 5; of_nat n; of_bool false]))
       (mkAcc (c_listed c) (c_rel c) (c_pend c) (c_free c) None).
Proof.
  intros [P1 P2 P3 P4 P5 P6 P7 P8 P9 P10] Ew.
  destruct (P10 n k regs Ew) as [w [H1 _]].
  pm_event_at. rewrite H1.
  constructor; cbn [pm_listed pm_viol pm_pop pm_pos pm_lastpop pm_rel pm_done pm_durable pm_cur
                    c_listed c_rel c_pend c_free c_wr]; auto.
  - intros q Hq. destruct (P3 q Hq) as [pp [G1 [G2 G3]]]. exists pp. split; [exact G1|split; [lia|exact G3]].
  - intros w' Hw'. destruct (P6 w' Hw') as [G1 G2]. split; [lia|exact G2].
  - intros n0 k0 regs0 H. discriminate.
Qed.

Lemma ev_release nreg m c k w id off pend' : prelD nreg m c (S k) w -> c_pend c = (id, off) :: pend' ->
  prelD nreg (pm_event m (L [A 2; of_nat id; A off; A 0]))
        (mkAcc (c_listed c) (c_rel c ++ [(id, off)]) pend' (c_free c ++ [off]) None) k w.
Proof.
  intros [D1 D2 D3 D4 D5 [dn [D6a [D6b [D6c D6d]]]] D7 D8 D9 [D10a [D10b [D10c D10d]]]] Ep.
  pm_event_at.
  assert (Hq : In (id, off) (c_rel c ++ c_pend c)) by (rewrite Ep; apply in_or_app; right; left; reflexivity).
  destruct (D3 _ Hq) as [pp [Hpp [Hlt Hlp]]]. unfold pop_pos in Hpp. cbn [fst] in Hpp.
  (* not released before *)
  assert (Hnr : natmem id (pm_rel m) = false).
  { destruct (natmem id (pm_rel m)) eqn:E; [exfalso|reflexivity]. apply D4 in E.
    rewrite Ep in D5. rewrite map_app in D5. apply NoDup_app_disj with (x := id) in D5; [exact D5|exact E|].
    cbn [map fst app]. left. reflexivity. }
  (* the completed write covers it *)
  assert (Hoff : ~ In off (map fst (snd w))).
  { intros Hi. unfold held in D7. rewrite Ep in D7. rewrite map_app in D7. cbn [map snd] in D7.
    apply NoDup_app_r in D7. destruct (D10b off Hi) as [H|H].
    - apply NoDup_app_disj with (x := off) in D7; [exact D7|exact H|left; reflexivity].
    - rewrite Ep in H. cbn [skipn] in H. apply NoDup_app_r in D7. apply NoDup_cons_iff in D7.
      apply (proj1 D7). apply in_map_iff in H. destruct H as [y [E Hy]]. apply in_skipn in Hy.
      rewrite <- E. apply in_map. exact Hy. }
  assert (Hokc : existsb (fun w0 : nat * list (Z * nat) => (pp <? fst w0) && negb (lists_block w0 off id)) (pm_done m) = true).
  { rewrite D6a. cbn [existsb]. apply orb_true_iff. left. apply andb_true_iff. split.
    - apply Nat.ltb_lt. apply (D10c (id, off)); [rewrite Ep; left; reflexivity|exact Hpp].
    - apply negb_true_iff. unfold lists_block. apply existsb_false. intros e He.
      destruct (Z.eqb_spec (fst e) off) as [E|E]; [|reflexivity]. exfalso. apply Hoff. rewrite <- E. apply in_map. exact He. }
  rewrite Hpp. cbv iota. rewrite Hokc, Hnr. cbn [negb orb]. rewrite app_nil_r.
  constructor; cbn [pm_listed pm_viol pm_pop pm_pos pm_lastpop pm_rel pm_done pm_durable pm_cur
                    c_listed c_rel c_pend c_free c_wr]; auto.
  - intros q Hq'. rewrite <- app_assoc in Hq'. cbn [app] in Hq'. rewrite <- Ep in Hq'.
    destruct (D3 q Hq') as [pp' [G1 [G2 G3]]]. exists pp'. split; [exact G1|split; [lia|exact G3]].
  - intros id' Hid. cbn [natmem existsb] in Hid. apply orb_true_iff in Hid. rewrite map_app. apply in_or_app.
    destruct Hid as [Hid|Hid]; [right; apply Nat.eqb_eq in Hid; subst; left; reflexivity|left; apply D4; exact Hid].
  - rewrite Ep in D5. rewrite <- app_assoc. cbn [app] in *. exact D5.
  - exists dn. split; [exact D6a|split; [exact D6b|split; [lia|]]].
    intros w' Hw'. destruct (D6d w' Hw') as [G1 G2]. split; [lia|]. intros q pp' Hq' Hp'. apply (G2 q pp'); [rewrite Ep; right; exact Hq'|exact Hp'].
  - unfold held in *. cbn [c_listed c_pend]. rewrite Ep in D7.
    eapply Permutation_NoDup; [|exact D7]. rewrite <- app_assoc. apply Permutation_app_head.
    rewrite !map_app. cbn [map snd app]. symmetry. apply Permutation_middle.
  - rewrite Ep in D8. cbn [length] in D8. rewrite app_length. cbn. lia.
  - rewrite Ep in D10a, D10b, D10c, D10d. cbn [length firstn skipn] in *. split; [lia|]. split; [exact D10b|]. split.
    + intros q pp' Hq' Hp'. apply (D10c q pp'); [right; exact Hq'|exact Hp'].
    + exact D10d.
Qed.

Lemma prelD_done nreg m c w : prelD nreg m c 0 w -> prel nreg m c.
Proof.
  intros [D1 D2 D3 D4 D5 [dn [D6a [D6b [D6c D6d]]]] D7 D8 D9 [D10a [D10b [D10c D10d]]]].
  cbn [skipn firstn] in *. constructor; auto.
  - rewrite D6a. intros w' [<-|Hw']; [split; [exact D6c|exact D10d]|apply D6d; exact Hw'].
  - rewrite D6b. intros e He. unfold held. rewrite map_app. apply in_or_app.
    destruct (D10b (fst e) (in_map fst _ _ He)); auto.
  - intros n k regs H. rewrite D9 in H. discriminate.
Qed.

Lemma ev_start nreg m c n (oc : sx) (bl : list bstate) : prel nreg m c -> c_wr c = None ->
  (forall r, In r (map (fun b => fst (bs_loc b)) bl) -> In r (map snd (c_listed c))) ->
  prel nreg (pm_event m (L [A 4; of_nat n; oc; L (map enc_bstate bl)]))
       (mkAcc (c_listed c) (c_rel c) (c_pend c) (c_free c)
              (Some (n, length (c_pend c), map (fun b => fst (bs_loc b)) bl))).
Proof.
  intros [P1 P2 P3 P4 P5 P6 P7 P8 P9 P10] Ew Hregs.
  pm_event_at.
  constructor; cbn [pm_listed pm_viol pm_pop pm_pos pm_lastpop pm_rel pm_done pm_durable pm_cur
                    c_listed c_rel c_pend c_free c_wr]; auto.
  - intros q Hq. destruct (P3 q Hq) as [pp [G1 [G2 G3]]]. exists pp. split; [exact G1|split; [lia|exact G3]].
  - intros w' Hw'. destruct (P6 w' Hw') as [G1 G2]. split; [lia|exact G2].
  - intros n0 k regs H. inversion H; subst. eexists. split; [cbn; rewrite Nat.eqb_refl; reflexivity|].
    cbn [fst snd]. split; [rewrite !map_map; apply map_ext; intros b; reflexivity|].
    split; [lia|]. split; [lia|]. split; [intros r Hr; left; apply Hregs; exact Hr|]. split.
    + intros q pp Hq Hp. rewrite firstn_all in Hq. destruct (P3 q) as [pp' [G1 [G2 _]]]; [apply in_or_app; right; exact Hq|].
      unfold pop_pos in *. cbn [pm_pop] in Hp. rewrite Hp in G1. inversion G1; subst. exact G2.
    + intros q pp Hq. rewrite skipn_all in Hq. destruct Hq.
Qed.

Lemma q_check nreg m c : prel nreg m c -> prel nreg (pm_quiescent nreg m (length (c_free c))) c.
Proof.
  intros P. pose proof P as [P1 P2 P3 P4 P5 P6 P7 P8 P9 P10]. unfold pm_quiescent.
  assert ((match pm_lastpop m with
           | None => true
           | Some lp => existsb (fun w : nat * list (Z * nat) => (lp <? fst w)) (pm_done m)
           end && negb (Nat.eqb (length (c_free c) + pm_listed m) nreg)) = false) as ->.
  { destruct (c_pend c) as [|q pend'] eqn:Ep.
    - rewrite P1. cbn [length] in P9. replace (length (c_free c) + length (c_listed c)) with nreg by lia.
      rewrite Nat.eqb_refl. apply andb_false_r.
    - destruct (P3 q) as [pp [G1 [G2 [lp [G3 G4]]]]]; [apply in_or_app; right; left; reflexivity|].
      rewrite G3. assert (existsb (fun w : nat * list (Z * nat) => (lp <? fst w)) (pm_done m) = false) as ->; [|reflexivity].
      apply existsb_false. intros w Hw. destruct (P6 w Hw) as [_ H]. specialize (H q pp (or_introl eq_refl) G1).
      apply Nat.ltb_ge. lia. }
  rewrite app_nil_r. destruct m. exact P.
Qed.

Lemma fold_restored : forall (l : list (nat * Z)) pos occ alc d n,
  fold_left pm_event (map (fun p => L [A 0; of_nat (fst p); A (snd p)]) l)
            (mkPm pos occ alc [] None [] [] [] (O, d) n [])
  = mkPm pos (map (fun p => (snd p, fst p)) (rev l) ++ occ) (map (fun p => (fst p, O)) (rev l) ++ alc)
         [] None [] [] [] (O, d ++ map (fun p => (snd p, fst p)) l) (length l + n) [].
Proof.
  induction l as [|[id off] r IH]; intros pos occ alc d n.
  - cbn. rewrite app_nil_r. reflexivity.
  - cbn [map fold_left fst snd]. unfold pm_event at 2. cbn [sx_nth sx_list nth sx_Z]. rewrite sx_nat_of_nat.
    cbn [pm_pos pm_occ pm_alloc pm_pop pm_lastpop pm_rel pm_cur pm_done pm_durable pm_listed pm_viol fst snd].
    rewrite IH. cbn [rev map length]. rewrite !map_app. cbn [map fst snd app]. rewrite <- !app_assoc. cbn [app].
    f_equal. lia.
Qed.

Lemma init_prel nreg (listed : list (nat * Z)) (free : list Z) :
  NoDup (map fst listed) -> NoDup (free ++ map snd listed) -> length free + length listed = nreg ->
  prel nreg (fold_left pm_event (map (fun p => L [A 0; of_nat (fst p); A (snd p)]) listed) pm_init)
       (mkAcc listed [] [] free None).
Proof.
  intros H1 H2 H3. unfold pm_init. rewrite fold_restored.
  constructor; cbn [pm_listed pm_viol pm_pop pm_pos pm_lastpop pm_rel pm_done pm_durable pm_cur
                    c_listed c_rel c_pend c_free c_wr app].
  - lia.
  - reflexivity.
  - intros q [].
  - intros id H. discriminate.
  - exact H1.
  - intros w [].
  - cbn [snd]. intros e He. unfold held. cbn [c_listed c_pend]. rewrite app_nil_r.
    apply in_map_iff in He. destruct He as [p [<- Hp]]. cbn [fst]. apply in_map. exact Hp.
  - unfold held. cbn [c_listed c_pend]. rewrite app_nil_r. exact H2.
  - cbn. lia.
  - intros n k regs H. discriminate.
Qed.
