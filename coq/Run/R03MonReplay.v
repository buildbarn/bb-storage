(** C03, monitor versus model — part 3: every history entry that the judge's replay
    ([R03.replay_entry]) accepts is a (possibly empty) sequence of steps of the transition system
    of Persist/Syncer.v; the ghost history of Persist/Shutdown.v is carried along, and for the
    entries the monitor's bookkeeping reacts to, what those steps did to the ghost is recorded
    ([post]).  Only a finalizer entry (tag 4) performs an [EFinalize] step. *)
From Coq Require Import List NArith ZArith Bool Arith Lia.
From BBS Require Import Common.Sx Persist.PBL Persist.PBLProofs Persist.Syncer Persist.SyncerProofs
  Persist.Shutdown Persist.ShutdownProofs Persist.ShutdownOrder Run.R03 Run.R03MonGhost Run.R03MonFields.
Import ListNotations.
Local Open Scope nat_scope.

Definition isstep (e : event) : Prop := exists t a, e = EStep t a.

Lemma isstep_notfin e : isstep e -> notfin e.
Proof. intros [t [a ->]] k blk seed H. discriminate. Qed.

Definition qstep (s : sys) (e : event) : Prop := isstep e /\ nowr s e.

Lemma nowr_fail s t a : a_ok a = false -> nowr s (EStep t a).
Proof. intros H t' a' st E _. inversion E; subst. exact H. Qed.
Lemma nowr_env s e : (forall t a, e <> EStep t a) -> nowr s e.
Proof. intros H t a st E. exfalso. eapply H; eauto. Qed.
Lemma nowr_pc s t a : (forall st, wpc_of t s <> Some (WWriting st)) -> nowr s (EStep t a).
Proof. intros H t' a' st E Hw. inversion E; subst. exfalso. eapply H; eauto. Qed.

Lemma tstep_step cfg t a x x' : tstep cfg t a x = Some x' ->
  step cfg (x_sys x) (EStep t a) = Some (Ok (x_sys x')) /\ x_state x' = x_state x.
Proof.
  unfold tstep. destruct (step cfg (x_sys x) (EStep t a)) as [[s'|]|]; try discriminate.
  intros [= <-]. cbn. auto.
Qed.

Lemma env_step cfg x e x' : env cfg x e = Some x' ->
  step cfg (x_sys x) e = Some (Ok (x_sys x')) /\ x_state x' = x_state x.
Proof.
  unfold env. destruct (step cfg (x_sys x) e) as [[s'|]|]; try discriminate.
  intros [= <-]. cbn. auto.
Qed.

Lemma advance_path cfg t a want fuel : a_ok a = false -> forall x x' gx, advance cfg fuel t a want x = Some x' ->
  exists gx', gpath cfg qstep (x_sys x) gx (x_sys x') gx' /\ want (x_sys x') = true /\ x_state x' = x_state x.
Proof.
  intros Ha. induction fuel as [|f IH]; intros x x' gx H; cbn in H.
  - destruct (want (x_sys x)) eqn:W; [|discriminate]. injection H as <-. eexists. split; [constructor|auto].
  - destruct (want (x_sys x)) eqn:W.
    + injection H as <-. eexists. split; [constructor|auto].
    + destruct (tstep cfg t a x) as [x1|] eqn:T; [|discriminate].
      destruct (tstep_step _ _ _ _ _ T) as [Hs E1].
      destruct (IH _ _ (gstep (x_sys x) (EStep t a) (x_sys x1) gx) H) as [gx' [Hp [Hw E2]]].
      exists gx'. split; [|split; [exact Hw|congruence]].
      econstructor; [split; [exists t, a; reflexivity|apply nowr_fail; exact Ha]|exact Hs|exact Hp].
Qed.

(** the put loop on its way to NotifySyncStarting after a cancellation (answers "ctx.Done() is
    ready"): an accepted advance never completes a state write on the way *)
Definition is_notify (pc : ppc) : bool := match pc with PNotify _ => true | _ => false end.

Lemma wpc_tp_writing s st : wpc_of TP s = Some (WWriting st) -> exists k, s_p s = PW k (WWriting st).
Proof. unfold wpc_of. destruct (s_p s) as [| | | | | | | |k w|]; try discriminate. intros [= <-]. eauto. Qed.

Lemma pw_writing_ok_step cfg a x x' k st : s_p (x_sys x) = PW k (WWriting st) -> a_ok a = true ->
  tstep cfg TP a x = Some x' -> s_p (x_sys x') = PW k WWritten.
Proof.
  intros Hp Ha T. destruct (tstep_step _ _ _ _ _ T) as [Hs _]. cbn [step] in Hs. unfold pstep in Hs.
  rewrite Hp in Hs. cbn [wstep] in Hs. rewrite Ha in Hs. injection Hs as <-. reflexivity.
Qed.

Lemma pw_written_step cfg a x x' k : s_p (x_sys x) = PW k WWritten ->
  tstep cfg TP a x = Some x' -> is_notify (s_p (x_sys x')) = false.
Proof.
  intros Hp T. destruct (tstep_step _ _ _ _ _ T) as [Hs _]. cbn [step] in Hs. unfold pstep in Hs.
  rewrite Hp in Hs. cbn [wstep] in Hs. destruct (notify_state_written _); [|discriminate].
  inversion Hs. cbn. destruct k; reflexivity.
Qed.

Lemma cancel_nowr cfg x xa : tstep cfg TP cancel_ans x = Some xa ->
  (forall k, s_p (x_sys xa) <> PW k WWritten) -> nowr (x_sys x) (EStep TP cancel_ans).
Proof.
  intros T Hn t a st [= <- <-] Hw. exfalso. destruct (wpc_tp_writing _ _ Hw) as [k Hk].
  exact (Hn k (pw_writing_ok_step cfg cancel_ans _ _ _ _ Hk eq_refl T)).
Qed.

Lemma advance_cancel_path cfg x x' gx : advance cfg 2 TP cancel_ans (p_at is_notify) x = Some x' ->
  exists gx', gpath cfg qstep (x_sys x) gx (x_sys x') gx' /\ is_notify (s_p (x_sys x')) = true /\ x_state x' = x_state x.
Proof.
  cbn [advance]. unfold p_at.
  destruct (is_notify (s_p (x_sys x))) eqn:W0.
  { intros [= <-]. eexists. split; [constructor|auto]. }
  destruct (tstep cfg TP cancel_ans x) as [xa|] eqn:Ta; [|discriminate].
  destruct (tstep_step _ _ _ _ _ Ta) as [Hsa Ea].
  destruct (is_notify (s_p (x_sys xa))) eqn:Wa.
  { intros [= <-]. eexists. split; [|auto].
    apply gpath_one; [|exact Hsa]. split; [eexists _, _; reflexivity|].
    apply (cancel_nowr _ _ _ Ta). intros k Hk. rewrite Hk in Wa. discriminate. }
  destruct (tstep cfg TP cancel_ans xa) as [xb|] eqn:Tb; [|discriminate].
  destruct (tstep_step _ _ _ _ _ Tb) as [Hsb Eb].
  destruct (is_notify (s_p (x_sys xb))) eqn:Wb; [|discriminate].
  intros [= <-]. eexists. split; [|split; [exact Wb|congruence]].
  econstructor; [|exact Hsa|apply gpath_one; [|exact Hsb]].
  - split; [eexists _, _; reflexivity|].
    (* had the first step completed a write, the second would not have reached NotifySyncStarting *)
    apply (cancel_nowr _ _ _ Ta). intros k Hk. rewrite (pw_written_step _ _ _ _ _ Hk Tb) in Wb. discriminate.
  - split; [eexists _, _; reflexivity|].
    apply (cancel_nowr _ _ _ Tb). intros k Hk. rewrite Hk in Wb. discriminate.
Qed.

(** entries 1..4 are ONE environment event each: PushBack / PopFront / Put / finalizer *)
Definition ev_of (bs : Z) (e : sx) : event :=
  if (tag e =? 1)%Z then EPushBack (if Z.eqb (sx_Z (sx_nth e 1)) 0 then Some (sx_Z (sx_nth e 2), bs) else None)
  else if (tag e =? 2)%Z then EPopFront
  else if (tag e =? 3)%Z then EPutStart (sx_nat (sx_nth e 1)) (sx_Z (sx_nth e 2))
  else EFinalize (sx_nat (sx_nth e 1))
                 (if Z.eqb (sx_Z (sx_nth e 2)) 3 then None
                  else Some (if Z.eqb (sx_Z (sx_nth e 2)) 0 then sx_Z (sx_nth e 3) else 0%Z))
                 (if Z.eqb (sx_Z (sx_nth e 2)) 0 then sx_N (sx_nth e 6) else 0%N).

Definition is14 (e : sx) : Prop := tag e = 1%Z \/ tag e = 2%Z \/ tag e = 3%Z \/ tag e = 4%Z.

(** thread steps, clock, cancellation: events that touch neither the list's blocks nor the uploads *)
Definition quiet (ev : event) : Prop :=
  match ev with EStep _ _ | ETick _ | ECancel => True | _ => False end.

Definition post (cfg : config) (bs : Z) (e : sx) (x : xst) (gx : gsys) (x' : xst) (gx' : gsys) : Prop :=
  (tag e = 8%Z -> sx_bool (sx_nth e 1) = false -> g_syncing (gs_g gx') = g_acks (gs_g gx')) /\
  (tag e = 8%Z -> sx_bool (sx_nth e 1) = true -> closedForWriting (s_pbl (x_sys x')) = true) /\
  (tag e = 9%Z -> g_synced (gs_g gx') = g_syncing (gs_g gx)) /\
  (tag e = 6%Z -> exists w, get_pend gx' (tid_of (sx_Z (sx_nth e 1))) = Some w /\ gw_cohort w = g_synced (gs_g gx')) /\
  (tag e = 13%Z -> sx_bool (sx_nth e 2) = true ->
     exists w, get_pend gx (tid_of (sx_Z (sx_nth e 1))) = Some w /\ gs_writes gx' = w :: gs_writes gx /\
               x_state x' = gw_state w) /\
  (tag e = 13%Z -> sx_bool (sx_nth e 2) = false -> x_state x' = x_state x /\ gs_writes gx' = gs_writes gx) /\
  (tag e = 18%Z -> s_p (x_sys x') = PExit) /\
  (tag e <> 13%Z -> x_state x' = x_state x) /\
  (is14 e -> step cfg (x_sys x) (ev_of bs e) = Some (Ok (x_sys x')) /\
             gx' = gstep (x_sys x) (ev_of bs e) (x_sys x') gx).

Definition allowed (e : sx) (s : sys) (ev : event) : Prop :=
  (tag e = 4%Z \/ notfin ev) /\ (tag e = 13%Z \/ nowr s ev) /\ (is14 e \/ quiet ev).

Definition sound (cfg : config) (bs : Z) (e : sx) (x : xst) (gx : gsys) (x' : xst) : Prop :=
  exists gx', gpath cfg (allowed e) (x_sys x) gx (x_sys x') gx' /\ post cfg bs e x gx x' gx'.

(* [post] for an entry whose tag is known ([E]): the clauses of the other tags have a closed false premise *)
Ltac fin_post E :=
  unfold post, is14; rewrite E; repeat split; intros; try discriminate; try assumption;
  try (match goal with H : _ \/ _ |- _ => destruct H as [H|[H|[H|H]]]; discriminate end); try congruence.

Definition plain (e : sx) : bool := negb (zmem (tag e) [1; 2; 3; 4; 6; 8; 9; 13; 18]%Z).

Lemma post_other cfg bs e x gx x' gx' : plain e = true -> x_state x' = x_state x -> post cfg bs e x gx x' gx'.
Proof.
  unfold plain. intros P S. unfold post, is14. repeat split; intros; try exact S;
    repeat match goal with H : _ \/ _ |- _ => destruct H as [H|H] end;
    match goal with E : tag e = _ |- _ => rewrite E in P; discriminate P end.
Qed.

Lemma post_single cfg bs e x gx x' : is14 e -> x_state x' = x_state x ->
  step cfg (x_sys x) (ev_of bs e) = Some (Ok (x_sys x')) ->
  post cfg bs e x gx x' (gstep (x_sys x) (ev_of bs e) (x_sys x') gx).
Proof.
  intros E S H. unfold post. repeat split; intros; try congruence;
  try (destruct E as [E|[E|[E|E]]]; congruence).
Qed.

Lemma post6 cfg bs e x gx x' gx' : tag e = 6%Z -> x_state x' = x_state x ->
  (exists w, get_pend gx' (tid_of (sx_Z (sx_nth e 1))) = Some w /\ gw_cohort w = g_synced (gs_g gx')) ->
  post cfg bs e x gx x' gx'.
Proof. intros E S H. fin_post E; try exact H. Qed.

Lemma post8 cfg bs e x gx x' gx' : tag e = 8%Z -> x_state x' = x_state x ->
  (sx_bool (sx_nth e 1) = false -> g_syncing (gs_g gx') = g_acks (gs_g gx')) ->
  (sx_bool (sx_nth e 1) = true -> closedForWriting (s_pbl (x_sys x')) = true) ->
  post cfg bs e x gx x' gx'.
Proof. intros E S H1 H2. fin_post E; auto. Qed.

Lemma post9 cfg bs e x gx x' gx' : tag e = 9%Z -> x_state x' = x_state x ->
  g_synced (gs_g gx') = g_syncing (gs_g gx) -> post cfg bs e x gx x' gx'.
Proof. intros E S H. fin_post E. Qed.

Lemma post13 cfg bs e x gx x' gx' : tag e = 13%Z ->
  (sx_bool (sx_nth e 2) = true ->
     exists w, get_pend gx (tid_of (sx_Z (sx_nth e 1))) = Some w /\ gs_writes gx' = w :: gs_writes gx /\
               x_state x' = gw_state w) ->
  (sx_bool (sx_nth e 2) = false -> x_state x' = x_state x /\ gs_writes gx' = gs_writes gx) ->
  post cfg bs e x gx x' gx'.
Proof.
  intros E H1 H2. fin_post E; auto;
  match goal with B : sx_bool _ = false |- _ => destruct (H2 B); assumption end.
Qed.

Lemma post18 cfg bs e x gx x' gx' : tag e = 18%Z -> x_state x' = x_state x -> s_p (x_sys x') = PExit ->
  post cfg bs e x gx x' gx'.
Proof. intros E S H. fin_post E. Qed.

Lemma path_steps_allowed cfg e s gx s' gx' : gpath cfg qstep s gx s' gx' -> gpath cfg (allowed e) s gx s' gx'.
Proof.
  apply gpath_weaken. intros s0 ev [H1 H2]. split; [right; apply isstep_notfin; exact H1|].
  split; [right; exact H2|right]. destruct H1 as [t [a ->]]. exact I.
Qed.

Lemma allowed_step e s t a : nowr s (EStep t a) -> allowed e s (EStep t a).
Proof. intros H. split; [right; intros k b sd Hc; discriminate|]. split; [right; exact H|right; exact I]. Qed.

Lemma allowed_fail e s t a : a_ok a = false -> allowed e s (EStep t a).
Proof. intros H. apply allowed_step, nowr_fail, H. Qed.

(** unfold the replay of an entry whose tag is known; the equation goes back into the goal *)
Ltac open_tag H E := unfold replay_entry in H; rewrite E in H; cbv beta iota zeta in H; revert H.
Ltac ifg := match goal with |- (if ?c then _ else _) = _ -> _ => destruct c eqn:?; [|discriminate] end.
Ltac ifg' := match goal with |- (if ?c then _ else _) = _ -> _ => destruct c eqn:?; [discriminate|] end.

Lemma sound_env cfg bs e x gx x' ev :
  plain e = true -> is_env ev = true -> quiet ev -> env cfg x ev = Some x' -> sound cfg bs e x gx x'.
Proof.
  intros P He Hq H. destruct (env_step _ _ _ _ H) as [Hs E].
  eexists. split; [apply gpath_one; [|exact Hs]|apply post_other; auto].
  split; [right; destruct ev; try contradiction; discriminate|].
  split; [right; apply nowr_env; destruct ev; discriminate|right; exact Hq].
Qed.

Lemma replay_14 cfg bs x e x' : is14 e -> replay_entry cfg bs x e = Some x' -> env cfg x (ev_of bs e) = Some x'.
Proof.
  intros [E|[E|[E|E]]] H; open_tag H E; unfold ev_of; rewrite E; cbn [Z.eqb Pos.eqb].
  - ifg. auto.
  - auto.
  - auto.
  - destruct (nth_error _ _) as [[[tok size]|]|]; try discriminate.
    destruct (put_finalize _ _ _ _ _) as [[p' fr]|]; [|discriminate]. ifg. ifg. auto.
Qed.

Lemma sound_single cfg bs e x gx x' : is14 e -> replay_entry cfg bs x e = Some x' -> sound cfg bs e x gx x'.
Proof.
  intros E H. destruct (env_step _ _ _ _ (replay_14 _ _ _ _ _ E H)) as [Hs S].
  exists (gstep (x_sys x) (ev_of bs e) (x_sys x') gx). split; [|apply post_single; assumption].
  apply gpath_one; [|exact Hs]. split; [|split; [right|left; exact E]].
  - destruct E as [E|[E|[E|E]]]; [right|right|right|left; exact E]; unfold ev_of; rewrite E; cbn [Z.eqb Pos.eqb];
      intros k b sd Hc; discriminate.
  - apply nowr_env. intros t a Hc. destruct E as [E|[E|[E|E]]]; unfold ev_of in Hc; rewrite E in Hc; cbn [Z.eqb Pos.eqb] in Hc;
      discriminate.
Qed.

Lemma sound_tstep cfg bs e x gx x' t a :
  plain e = true ->
  tstep cfg t a x = Some x' -> nowr (x_sys x) (EStep t a) -> sound cfg bs e x gx x'.
Proof.
  intros P H Hn. destruct (tstep_step _ _ _ _ _ H) as [Hs E].
  eexists. split; [apply gpath_one; [apply allowed_step; exact Hn|exact Hs]|].
  apply post_other; auto.
Qed.

Lemma sound_nil cfg bs e x gx x' :
  plain e = true ->
  x_sys x' = x_sys x -> x_state x' = x_state x -> sound cfg bs e x gx x'.
Proof.
  intros P E1 E2. exists gx. split; [rewrite E1; constructor|]. apply post_other; auto.
Qed.

Ltac tagp E := unfold plain; rewrite E; reflexivity.

Section Tags.
Variables (cfg : config) (bs : Z).

Lemma replay_tag5 x e x' gx : tag e = 5%Z -> replay_entry cfg bs x e = Some x' -> sound cfg bs e x gx x'.
Proof.
  intros E H. open_tag H E. destruct (tid_of _).
  - destruct (s_r (x_sys x)); try discriminate. ifg. intros H.
    eapply (sound_tstep cfg bs e x gx x'); [tagp E|exact H|apply nowr_fail; reflexivity].
  - destruct (s_p (x_sys x)); try discriminate. ifg. intros H.
    eapply (sound_tstep cfg bs e x gx x'); [tagp E|exact H|apply nowr_fail; reflexivity].
Qed.

Lemma getstate_step t a s1 s2 gx1 : at_w t is_getstate s1 = true ->
  gs_g (gstep s1 (EStep t a) s2 gx1) = gs_g gx1 /\
  exists w, get_pend (gstep s1 (EStep t a) s2 gx1) t = Some w /\ gw_cohort w = g_synced (gs_g gx1).
Proof.
  unfold at_w, thread_w. intros H. destruct t; cbn [gstep].
  - destruct (s_r s1) as [| |w]; cbn in H; try discriminate. destruct w; cbn in H; try discriminate.
    cbn. split; [reflexivity|]. eexists. split; reflexivity.
  - destruct (s_p s1) as [| | | | | | | |k w|]; cbn in H; try discriminate. destruct w; cbn in H; try discriminate.
    cbn. split; [reflexivity|]. eexists. split; reflexivity.
Qed.

Lemma replay_tag6 x e x' gx : tag e = 6%Z -> replay_entry cfg bs x e = Some x' -> sound cfg bs e x gx x'.
Proof.
  intros E H. open_tag H E.
  destruct (advance _ _ _ _ _ _) as [x1|] eqn:A; [|discriminate].
  destruct (tstep _ _ _ x1) as [x2|] eqn:T; [|discriminate].
  destruct (thread_w _ _) as [[| |st| |]|]; try discriminate.
  ifg. intros H. inversion H; subst x'; clear H.
  destruct (advance_path cfg _ no_ans _ _ eq_refl _ _ gx A) as [gx1 [P1 [W1 E1]]].
  destruct (tstep_step _ _ _ _ _ T) as [Hs E2].
  destruct (getstate_step _ no_ans _ (x_sys x2) gx1 W1) as [Hg [w [Hp Hc]]].
  exists (gstep (x_sys x1) (EStep (tid_of (sx_Z (sx_nth e 1))) no_ans) (x_sys x2) gx1). split.
  - eapply gpath_trans; [apply path_steps_allowed; exact P1|].
    apply gpath_one; [apply allowed_fail; reflexivity|exact Hs].
  - apply post6; [exact E|congruence|]. exists w. split; [exact Hp|]. rewrite Hg. exact Hc.
Qed.

Lemma replay_tag7 x e x' gx : tag e = 7%Z -> replay_entry cfg bs x e = Some x' -> sound cfg bs e x gx x'.
Proof.
  intros E H. open_tag H E. ifg. intros H.
  eapply (sound_tstep cfg bs e x gx x'); [tagp E|exact H|apply nowr_fail; reflexivity].
Qed.

Lemma replay_tag8 x e x' gx : tag e = 8%Z -> replay_entry cfg bs x e = Some x' -> sound cfg bs e x gx x'.
Proof.
  intros E H. open_tag H E. destruct (sx_bool (sx_nth e 1)) eqn:B.
  - destruct (x_final_due x && closedForWriting (s_pbl (x_sys x)))%bool eqn:C; [|discriminate].
    intros H. inversion H; subst x'; clear H. apply andb_prop in C. destruct C as [_ C].
    exists gx. cbn [x_sys]. split; [constructor|].
    apply post8; [exact E|reflexivity|rewrite B; discriminate|intros _; exact C].
  - destruct (advance _ _ _ _ _ _) as [x1|] eqn:A; [|discriminate]. intros H.
    destruct (advance_cancel_path _ _ _ gx A) as [gx1 [P1 [W1 E1]]].
    destruct (tstep_step _ _ _ _ _ H) as [Hs E2].
    exists (gstep (x_sys x1) (EStep TP no_ans) (x_sys x') gx1). split.
    + eapply gpath_trans; [apply path_steps_allowed; exact P1|].
      apply gpath_one; [apply allowed_fail; reflexivity|exact Hs].
    + apply post8; [exact E|congruence| |rewrite B; discriminate].
      intros _. cbn [gstep]. destruct (s_p (x_sys x1)); try discriminate. reflexivity.
Qed.

Lemma replay_tag9 x e x' gx : tag e = 9%Z -> replay_entry cfg bs x e = Some x' -> sound cfg bs e x gx x'.
Proof.
  intros E H. open_tag H E. destruct (s_p (x_sys x)) as [| | | | | |keep final| | |] eqn:Ep; try discriminate.
  destruct (tstep _ _ _ x) as [x1|] eqn:T; [|discriminate]. intros H. inversion H; subst x'; clear H.
  destruct (tstep_step _ _ _ _ _ T) as [Hs E2]. cbn [x_sys x_state].
  exists (gstep (x_sys x) (EStep TP no_ans) (x_sys x1) gx). split.
  - apply gpath_one; [apply allowed_fail; reflexivity|exact Hs].
  - apply post9; [exact E|exact E2|].
    cbn [gstep]. rewrite Ep. destruct (negb keep && negb final); reflexivity.
Qed.

Lemma replay_tag10 x e x' gx : tag e = 10%Z -> replay_entry cfg bs x e = Some x' -> sound cfg bs e x gx x'.
Proof.
  intros E H. open_tag H E. destruct (s_p (x_sys x)); try discriminate. ifg. intros H.
  injection H as <-. apply sound_nil; [tagp E|reflexivity|reflexivity].
Qed.

Lemma replay_tag11 x e x' gx : tag e = 11%Z -> replay_entry cfg bs x e = Some x' -> sound cfg bs e x gx x'.
Proof.
  intros E H. open_tag H E. destruct (s_p (x_sys x)) eqn:Ep; try discriminate. intros H.
  eapply (sound_tstep cfg bs e x gx x'); [tagp E|exact H|].
  apply nowr_pc. intros st. unfold wpc_of. rewrite Ep. discriminate.
Qed.

Lemma replay_tag12 x e x' gx : tag e = 12%Z -> replay_entry cfg bs x e = Some x' -> sound cfg bs e x gx x'.
Proof.
  intros E H. open_tag H E. destruct (thread_w _ _) as [[| |st| |]|]; try discriminate. ifg. intros H.
  injection H as <-. apply sound_nil; [tagp E|reflexivity|reflexivity].
Qed.

Lemma write_ok_step t st s s1 gx w : wpc_of t s = Some (WWriting st) -> get_pend gx t = Some w ->
  gs_writes (gstep s (EStep t (mkAns true 0)) s1 gx) = w :: gs_writes gx.
Proof.
  unfold wpc_of. intros Ew Hp. destruct t; cbn [gstep].
  - destruct (s_r s) as [| |w0]; try discriminate. inversion Ew; subst w0.
    cbn [gw_step a_ok]. rewrite Hp. reflexivity.
  - destruct (s_p s) as [| | | | | | | |k w0|]; try discriminate. inversion Ew; subst w0.
    cbn [gw_step a_ok]. rewrite Hp. reflexivity.
Qed.

Lemma replay_tag13 x e x' gx : psome (x_sys x) gx ->
  tag e = 13%Z -> replay_entry cfg bs x e = Some x' -> sound cfg bs e x gx x'.
Proof.
  intros PS E H. open_tag H E.
  destruct (thread_w _ _) as [[| |st| |]|] eqn:Ew; try discriminate.
  destruct (tstep _ _ _ x) as [x1|] eqn:T; [|discriminate]. intros H. inversion H; subst x'; clear H.
  destruct (tstep_step _ _ _ _ _ T) as [Hs E2]. cbn [x_sys x_state].
  (* [thread_w] of Run/R03.v and [wpc_of] are the same function *)
  destruct (PS _ _ Ew) as [w [Hp Hst]].
  exists (gstep (x_sys x) (EStep (tid_of (sx_Z (sx_nth e 1))) (mkAns (sx_bool (sx_nth e 2)) 0)) (x_sys x1) gx).
  split; [apply gpath_one; [split; [right; intros k b sd Hc; discriminate|split; [left; exact E|right; exact I]]|exact Hs]|].
  apply post13; [exact E| |].
  - intros B. rewrite B. exists w. split; [exact Hp|]. split; [|symmetry; exact Hst].
    eapply write_ok_step; eauto.
  - intros B. rewrite B. split; [exact E2|]. apply gstep_writes_same. apply nowr_fail. reflexivity.
Qed.

Lemma replay_tag14 x e x' gx : tag e = 14%Z -> replay_entry cfg bs x e = Some x' -> sound cfg bs e x gx x'.
Proof.
  intros E H. open_tag H E. destruct (tid_of _).
  - destruct (s_r (x_sys x)) as [| |[| | | |d]]; try discriminate. ifg. intros H.
    injection H as <-. apply sound_nil; [tagp E|reflexivity|reflexivity].
  - destruct (advance _ _ _ _ _ _) as [x1|] eqn:A; [|discriminate]. intros H.
    destruct (advance_path cfg _ no_ans _ _ eq_refl _ _ gx A) as [gx1 [P1 [W1 E1]]].
    assert (x' = x1).
    { revert H. destruct (s_p (x_sys x1)) as [| | |d| | | |k f d|k [| | | |d]|]; try discriminate;
        ifg; intros [= <-]; reflexivity. }
    subst x'. exists gx1. split; [apply path_steps_allowed; exact P1|].
    apply post_other; [tagp E|exact E1].
Qed.

Lemma replay_tag15 x e x' gx : tag e = 15%Z -> replay_entry cfg bs x e = Some x' -> sound cfg bs e x gx x'.
Proof.
  intros E H. open_tag H E. destruct (tid_of _).
  - destruct (s_r (x_sys x)) as [| |[| | | |d]]; try discriminate. intros H.
    eapply (sound_tstep cfg bs e x gx x'); [tagp E|exact H|apply nowr_fail; reflexivity].
  - destruct (s_p (x_sys x)) as [| | |d| | | |k f d|k [| | | |d]|]; try discriminate;
      ifg'; intros H;
      (eapply (sound_tstep cfg bs e x gx x'); [tagp E|exact H|apply nowr_fail; reflexivity]).
Qed.

Lemma replay_tag16_17 x e x' gx : tag e = 16%Z \/ tag e = 17%Z -> replay_entry cfg bs x e = Some x' ->
  sound cfg bs e x gx x'.
Proof.
  intros [E|E] H; open_tag H E; intros H;
    (eapply (sound_env cfg bs e x gx x'); [tagp E| | |exact H]; [reflexivity|exact I]).
Qed.

Lemma replay_tag18 x e x' gx : tag e = 18%Z -> replay_entry cfg bs x e = Some x' -> sound cfg bs e x gx x'.
Proof.
  intros E H. open_tag H E. destruct (s_p (x_sys x)) eqn:Ep; try discriminate. intros H. inversion H; subst x'.
  exists gx. split; [constructor|]. apply post18; [exact E|reflexivity|exact Ep].
Qed.

Lemma opt_tstep_path t a x gx : a_ok a = false ->
  exists gx1, gpath cfg qstep (x_sys x) gx (x_sys (match tstep cfg t a x with Some x' => x' | None => x end)) gx1 /\
              x_state (match tstep cfg t a x with Some x' => x' | None => x end) = x_state x.
Proof.
  intros Ha. destruct (tstep cfg t a x) as [x'|] eqn:T.
  - destruct (tstep_step _ _ _ _ _ T) as [Hs E]. eexists. split; [|exact E].
    apply gpath_one; [split; [exists t, a; reflexivity|apply nowr_fail; exact Ha]|exact Hs].
  - exists gx. split; [constructor|reflexivity].
Qed.

Lemma replay_tag20 x e x' gx : tag e = 20%Z -> replay_entry cfg bs x e = Some x' -> sound cfg bs e x gx x'.
Proof.
  intros E H. open_tag H E.
  set (x1 := match s_p (x_sys x) with
             | PSelect _ => match tstep cfg TP no_ans x with Some x' => x' | None => x end
             | _ => x end).
  assert (H1 : exists gx1, gpath cfg qstep (x_sys x) gx (x_sys x1) gx1 /\ x_state x1 = x_state x).
  { subst x1. destruct (s_p (x_sys x)); try (exists gx; split; [constructor|reflexivity]).
    apply opt_tstep_path. reflexivity. }
  destruct H1 as [gx1 [P1 E1]].
  set (x2 := match s_r (x_sys x1) with
             | RWait ch => if is_closed (heap (s_pbl (x_sys x1))) ch
                           then match tstep cfg TR no_ans x1 with Some x' => x' | None => x1 end else x1
             | _ => x1 end).
  assert (H2 : exists gx2, gpath cfg qstep (x_sys x1) gx1 (x_sys x2) gx2 /\ x_state x2 = x_state x1).
  { subst x2. destruct (s_r (x_sys x1)); try (exists gx1; split; [constructor|reflexivity]).
    destruct (is_closed _ _); [apply opt_tstep_path; reflexivity|exists gx1; split; [constructor|reflexivity]]. }
  destruct H2 as [gx2 [P2 E2]].
  ifg. intros H. inversion H; subst x'. exists gx2. split.
  - apply path_steps_allowed. eapply gpath_trans; eauto.
  - apply post_other; [tagp E|congruence].
Qed.

(** the default branch of a [match] on the replayed tags, taken on a goal that holds nothing else *)
Lemma replayed_default {A} (a1 a2 a3 a4 a5 a6 a7 a8 a9 a10 a11 a12 a13 a14 a15 a16 a17 a18 a20 d : A) (z : Z) :
  zmem z ([1; 2; 3; 4; 6; 8; 9; 13; 18] ++ [5; 7; 10; 11; 12; 14; 15; 16; 17; 20])%Z = false ->
  match z with
  | 1 => a1 | 2 => a2 | 3 => a3 | 4 => a4 | 5 => a5 | 6 => a6 | 7 => a7 | 8 => a8 | 9 => a9 | 10 => a10
  | 11 => a11 | 12 => a12 | 13 => a13 | 14 => a14 | 15 => a15 | 16 => a16 | 17 => a17 | 18 => a18 | 20 => a20
  | _ => d
  end%Z = d.
Proof. destruct z as [|p|p]; [|dpos p 5%nat|]; intros M; try reflexivity; discriminate M. Qed.

Lemma replay_default x e :
  zmem (tag e) ([1; 2; 3; 4; 6; 8; 9; 13; 18] ++ [5; 7; 10; 11; 12; 14; 15; 16; 17; 20])%Z = false ->
  replay_entry cfg bs x e = Some x.
Proof. unfold replay_entry. apply replayed_default. Qed.

Lemma replay_entry_sound x e x' gx : psome (x_sys x) gx ->
  replay_entry cfg bs x e = Some x' -> sound cfg bs e x gx x'.
Proof.
  intros PS H.
  destruct (zmem (tag e) ([1; 2; 3; 4; 6; 8; 9; 13; 18] ++ [5; 7; 10; 11; 12; 14; 15; 16; 17; 20])%Z) eqn:M.
  - apply existsb_exists in M. destruct M as [k [Hin Hk]]. apply Z.eqb_eq in Hk. cbn [In app] in Hin.
    destruct Hin as [<-|[<-|[<-|[<-|[<-|[<-|[<-|[<-|[<-|[<-|[<-|[<-|[<-|[<-|[<-|[<-|[<-|[<-|[<-|[]]]]]]]]]]]]]]]]]]]].
    1-4: apply sound_single; [unfold is14; auto|exact H].
    + eapply replay_tag6; eauto.
    + eapply replay_tag8; eauto.
    + eapply replay_tag9; eauto.
    + eapply replay_tag13; eauto.
    + eapply replay_tag18; eauto.
    + eapply replay_tag5; eauto.
    + eapply replay_tag7; eauto.
    + eapply replay_tag10; eauto.
    + eapply replay_tag11; eauto.
    + eapply replay_tag12; eauto.
    + eapply replay_tag14; eauto.
    + eapply replay_tag15; eauto.
    + eapply replay_tag16_17; eauto.
    + eapply replay_tag16_17; eauto.
    + eapply replay_tag20; eauto.
  - (* an entry the replay ignores; [plain] lists the first nine of the tags above *)
    rewrite (replay_default _ _ M) in H. injection H as <-. apply sound_nil; [|reflexivity|reflexivity].
    unfold zmem in M. rewrite existsb_app in M. apply Bool.orb_false_elim in M. unfold plain, zmem. rewrite (proj1 M). reflexivity.
Qed.

(** a finalizer entry accepted while the list is closed for writing is a refusal (class 1:
    errClosedForWriting) or the block's own error (class 3) — never an acknowledgement *)
Lemma replay_tag4_closed x e x' : tag e = 4%Z -> replay_entry cfg bs x e = Some x' ->
  closedForWriting (s_pbl (x_sys x)) = true ->
  sx_Z (sx_nth e 2) = 1%Z \/ sx_Z (sx_nth e 2) = 3%Z.
Proof.
  intros E H C. open_tag H E.
  destruct (nth_error _ _) as [[[tok size]|]|]; try discriminate.
  destruct (put_finalize _ _ _ _ _) as [[p' fr]|] eqn:Ef; [|discriminate].
  match goal with |- (if ?c then _ else _) = _ -> _ => destruct c eqn:Er; [|discriminate] end. intros _. apply Z.eqb_eq in Er.
  destruct (refused_not_lost_pbl _ _ _ _ _ _ _ C Ef) as [_ [->|[-> _]]]; cbn in Er; auto.
Qed.

End Tags.
