(** C07, "the monitor is silent on the model" — part 1: infrastructure.

    - [mon_step] written field by field ([mon_step_eq]);
    - the model side of the simulation: every state the coarse executor
      ([do_op] followed by [quiesce]) visits is [reachable] in the fine-grained
      LTS, the executor never panics, [quiesce] with fuel 64 always ends in a
      QUIESCENT state (neither loop has an internal step left; rank <= 12), and
      what one [quiesce] can do to the put loop's program counter and to the
      call counters. *)
From Coq Require Import List NArith ZArith Bool Arith Lia.
From BBS Require Import Common.Sx Persist.PBL Persist.PBLProofs Persist.Syncer Persist.SyncerProofs
  Persist.LiveActs Persist.LiveCover Persist.LiveRelease Run.R07.
Import ListNotations.
Local Open Scope nat_scope.

Definition ms_hit (o : sx) : bool := Z.eqb (tag (sx_nth o 0)) 1.
Definition ms_now (m : mst) (op : sx) : N :=
  if Z.eqb (tag op) 7 then (m_now m + sx_N (sx_nth op 1))%N else m_now m.
Definition ms_upl (m : mst) (op o : sx) : list (Z * Z) :=
  if Z.eqb (tag op) 1 && ms_hit o
  then m_upl m ++ [(sx_Z (sx_nth (sx_nth o 0) 1), (sx_Z (sx_nth op 3) + sx_Z (sx_nth op 2))%Z)]
  else m_upl m.
Definition ms_acks (m : mst) (op o : sx) : list ack :=
  if Z.eqb (tag op) 2 && Z.eqb (tag (sx_nth o 0)) 0 && (1 <? length (sx_list (sx_nth o 0)))%nat then
    match nth_error (m_upl m) (sx_nat (sx_nth op 1)) with
    | Some (lo, en) => m_acks m ++ [mkAck (m_step m) lo en (sx_N (sx_nth (sx_nth o 0) 2))]
    | None => m_acks m
    end
  else m_acks m.
Definition ms_bp (m : mst) (op o : sx) : list Z * list Z :=
  if Z.eqb (tag op) 3 && ms_hit o then
    match m_blocks m with
    | b :: rest => (rest, m_popped m ++ [b])
    | [] => (m_blocks m, m_popped m)
    end
  else if Z.eqb (tag op) 4 && Z.eqb (tag (sx_nth o 0)) 0 && (1 <? length (sx_list (sx_nth o 0)))%nat
  then (m_blocks m ++ [sx_Z (sx_nth (sx_nth o 0) 1)], m_popped m)
  else (m_blocks m, m_popped m).
Definition ms_sync_done (op o : sx) : bool := Z.eqb (tag op) 5 && ms_hit o.
Definition ms_sync_ok (op o : sx) : bool := ms_sync_done op o && sx_bool (sx_nth op 1).
Definition ms_last_ok (m : mst) (op o : sx) : option nat :=
  if ms_sync_ok op o then Some (m_series_start m) else m_last_ok_start m.
Definition ms_retry (m : mst) (op o : sx) : bool :=
  if ms_sync_done op o then negb (sx_bool (sx_nth op 1)) else m_retry m.
Definition ms_write_done (op o : sx) : bool := Z.eqb (tag op) 6 && ms_hit o.
Definition ms_write_ok (op o : sx) : bool := ms_write_done op o && sx_bool (sx_nth op 1).
Definition ms_v46 (m : mst) (op o : sx) : list Z :=
  if ms_write_ok op o then match m_cur m with Some w => check_write w (ms_acks m op o) | None => [] end else [].
Definition ms_written (m : mst) (op o : sx) : option sx :=
  if ms_write_ok op o then match m_cur m with Some w => Some (pw_content w) | None => m_written m end
  else m_written m.
Definition ms_cur0 (m : mst) (op o : sx) : option pendw := if ms_write_done op o then None else m_cur m.
Definition ms_new_sync (m : mst) (o : sx) : bool :=
  Z.eqb (tag (sx_nth o 2)) 3 && (m_nsy m <? sx_nat (sx_nth (sx_nth o 2) 1))%nat.
Definition ms_series (m : mst) (op o : sx) : nat :=
  if ms_new_sync m o && negb (ms_retry m op o) then m_step m else m_series_start m.
Definition ms_nsy (m : mst) (o : sx) : nat :=
  if ms_new_sync m o then sx_nat (sx_nth (sx_nth o 2) 1) else m_nsy m.
Definition ms_wobs (o : sx) : option sx :=
  if is_write (sx_nth o 1) then Some (sx_nth o 1) else if is_write (sx_nth o 2) then Some (sx_nth o 2) else None.
Definition ms_nc (m : mst) (op o : sx) (popped : list Z) : nat * option pendw :=
  match ms_wobs o with
  | Some w => if (m_nwr m <? sx_nat (sx_nth w 1))%nat
              then (sx_nat (sx_nth w 1), Some (mkPendw (L [sx_nth w 2; sx_nth w 3]) (ms_last_ok m op o) popped))
              else (m_nwr m, ms_cur0 m op o)
  | None => (m_nwr m, ms_cur0 m op o)
  end.
Definition ms_fired (m : mst) (op o : sx) : bool :=
  Z.eqb (tag op) 8 && ms_hit o && Z.eqb (sx_Z (sx_nth op 1)) 1
  && Z.eqb (tag (m_prev_p m)) 2 && Z.eqb (sx_Z (sx_nth (m_prev_p m) 2)) 0.
Definition ms_cancelled (m : mst) (op : sx) : bool := m_cancelled m || Z.eqb (tag op) 9.
Definition ms_started (m : mst) (op o : sx) : bool :=
  ms_new_sync m o && negb (ms_retry m op o) && negb (ms_cancelled m op).
Definition ms_unarmed (m : mst) (op o : sx) : bool := ms_started m op o && negb (ms_fired m op o || m_armed m).
Definition ms_v2 (interval : N) (m : mst) (op o : sx) : list Z :=
  if (ms_fired m op o || ms_unarmed m op o) && (ms_now m op <? m_last_sched m + interval)%N then [2%Z] else [].
Definition ms_last_sched (m : mst) (op o : sx) : N :=
  if ms_fired m op o || ms_unarmed m op o then ms_now m op else m_last_sched m.
Definition ms_armed (m : mst) (op o : sx) : bool := (ms_fired m op o || m_armed m) && negb (ms_new_sync m o).
Definition ms_r_waits (o : sx) : bool :=
  Z.eqb (tag (sx_nth o 1)) 0 || (Z.eqb (tag (sx_nth o 1)) 5 && negb (is_write (sx_nth o 2))).
Definition ms_v1 (o : sx) (popped : list Z) : list Z :=
  if (length (sx_list (sx_nth o 5)) <? length popped)%nat && ms_r_waits o then [1%Z] else [].
Definition ms_uncovered (m : mst) (op o : sx) (popped : list Z) : bool :=
  existsb (fun k => negb (zmem (k_loc k) popped) &&
                    negb (match ms_written m op o with Some c => covers c k | None => false end)) (ms_acks m op o).
Definition ms_p_waits (o : sx) : bool :=
  Z.eqb (tag (sx_nth o 2)) 0 || Z.eqb (tag (sx_nth o 2)) 4
  || (Z.eqb (tag (sx_nth o 2)) 5 && negb (is_write (sx_nth o 1))).
Definition ms_v5 (m : mst) (op o : sx) (popped : list Z) : list Z :=
  if ms_uncovered m op o popped && ms_p_waits o then [5%Z] else [].

Definition ms_popped (m : mst) (op o : sx) : list Z := snd (ms_bp m op o).
Definition ms_viol (interval : N) (m : mst) (op o : sx) : list Z :=
  ms_v46 m op o ++ ms_v2 interval m op o ++ ms_v1 o (ms_popped m op o) ++ ms_v5 m op o (ms_popped m op o).

Lemma code_hit_off op c h : tag op <> c \/ h = false -> Z.eqb (tag op) c && h = false.
Proof. intros [H| ->]; [destruct (Z.eqb_spec (tag op) c); [contradiction|reflexivity]|apply andb_false_r]. Qed.

Lemma mon_step_eq interval m op o :
  mon_step interval m op o =
  mkM (S (m_step m)) (ms_now m op) (fst (ms_bp m op o)) (ms_popped m op o) (ms_upl m op o) (ms_acks m op o)
      (ms_nsy m o) (ms_series m op o) (ms_retry m op o) (ms_last_ok m op o)
      (fst (ms_nc m op o (ms_popped m op o))) (snd (ms_nc m op o (ms_popped m op o)))
      (ms_written m op o) (sx_nth o 2) (ms_last_sched m op o) (ms_armed m op o) (ms_cancelled m op)
      (m_viol m ++ ms_viol interval m op o).
Proof.
  unfold mon_step, ms_viol, ms_popped. cbv zeta.
  match goal with |- match ?E with pair _ _ => _ end = _ => change E with (ms_bp m op o) end.
  destruct (ms_bp m op o) as [bl po]. cbn [fst snd].
  match goal with |- match ?E with pair _ _ => _ end = _ => change E with (ms_nc m op o po) end.
  destruct (ms_nc m op o po) as [nw cu]. cbn [fst snd].
  reflexivity.
Qed.

Lemma obs_nth0 res x : sx_nth (enc_obs res x) 0 = res. Proof. reflexivity. Qed.
Lemma obs_nth1 res x : sx_nth (enc_obs res x) 1 = enc_r x. Proof. reflexivity. Qed.
Lemma obs_nth2 res x : sx_nth (enc_obs res x) 2 = enc_p x. Proof. reflexivity. Qed.
Lemma obs_nth5 res x :
  sx_list (sx_nth (enc_obs res x) 5) = map (fun l : loc => A (fst l)) (releasedLog (s_pbl (x_sys x))).
Proof. reflexivity. Qed.

Lemma sx_nat_of_nat n : sx_nat (of_nat n) = n.
Proof. unfold sx_nat, of_nat. cbn. apply Nat2Z.id. Qed.
Lemma sx_N_of_N n : sx_N (of_N n) = n.
Proof. unfold sx_N, of_N. cbn. apply N2Z.id. Qed.

Section Model.
Variable cfg : config.
Variable alloc : loc -> Z -> bool.
Variable oldest : N.
Variable init : list bstate.
Variable t0 : N.

Definition sreach (s : sys) : Prop := reachable cfg alloc oldest init t0 s.

(** released + awaiting release = popped *)
Definition relc (p : pbl) : Prop := totalReleased p = length (releasedLog p) + length (toRelease p).

Lemma act_relc a p p' : pbl_inv p -> relc p -> apply_act a p = Ok p' -> relc p'.
Proof.
  intros I R H. pose proof (act_rel _ _ _ H) as F. unfold relc in *.
  destruct a; try (destruct F as [F1 [F2 [F3 F4]]]; rewrite F1, F3, F4; exact R).
  - destruct F as [fb [rest [_ [F1 [_ [F3 F4]]]]]]. rewrite F1, F3, F4, app_length. cbn. lia.
  - destruct F as [F1 [_ [F3 F4]]]. rewrite F1, F3, F4, app_length, firstn_length, skipn_length.
    pose proof (i_rel _ I). lia.
Qed.

(** a loop that will return false from ProcessBlockPut only exists after cancellation *)
Definition keepc (s : sys) : Prop :=
  match s_p s with
  | PNotify false | PSyncing false _ | PSyncRet false _ | PSyncSleep false _ _ | PW false _ | PExit =>
      s_cancel s = true
  | _ => True
  end.

Lemma env_now_cancel s e s' : step cfg s e = Some (Ok s') ->
  match e with
  | ETick d => s_now s' = (s_now s + d)%N /\ s_cancel s' = s_cancel s
  | ECancel => s_now s' = s_now s /\ s_cancel s' = true
  | EStep _ _ => True
  | _ => s_now s' = s_now s /\ s_cancel s' = s_cancel s
  end.
Proof.
  intros H. destruct (is_env e) eqn:He; [|destruct e; try discriminate He; exact I].
  destruct (env_cases H He); auto.
Qed.

Lemma rstep_cancel a s s' : inv1 s -> rstep cfg a s = Some (Ok s') -> s_cancel s' = s_cancel s.
Proof. intros _ H. destruct (rstep_fields H) as [p' [st' [r' [ws' ->]]]]. reflexivity. Qed.

Lemma wstep_succ me w a s s1 o : wstep cfg me w a s = Some (Ok (s1, o)) ->
  (exists w', o = Some w' /\
     match w with
     | WAcquire => w' = WGetState
     | WGetState => exists st, w' = WWriting st
     | WWriting _ => (a_ok a = true /\ w' = WWritten) \/
                     (a_ok a = false /\ w' = WSleep (s_now s + c_retry cfg)%N)
     | WWritten => False
     | WSleep _ => w' = WAcquire
     end) \/ (w = WWritten /\ o = None).
Proof. intros Ew. destruct (wstep_cases Ew); eauto 8. Qed.

Lemma timer_cancel_guard (ok : bool) (dl t n : N) : ok || negb ((dl <=? t) && (t <=? n))%N = true ->
  ok = true \/ (dl <=? n)%N = false \/ (n <? t)%N = true \/ (t <? dl)%N = true.
Proof.
  destruct ok; [auto|]. cbn [orb]. rewrite negb_true_iff, andb_false_iff, !N.leb_gt, !N.ltb_lt. tauto.
Qed.

Lemma pstep_shape a s s' : inv1 s -> pstep cfg a s = Some (Ok s') ->
  s_cancel s' = s_cancel s /\ s_now s' = s_now s /\
  match s_p s with
  | PStart => exists c, s_p s' = PSelect c
  | PSelect c => s_p s' = PTimer (s_last s + c_interval cfg)%N \/ s_p s' = PIdle c
  | PIdle c => (s_cancel s = true /\ s_p s' = PNotify false) \/ s_p s' = PTimer (s_now s + c_interval cfg)%N
  | PTimer dl => (s_cancel s = true /\ s_p s' = PNotify false /\ s_last s' = s_last s
                                     /\ (a_ok a = true \/ (dl <=? s_now s)%N = false
                                                                    \/ (s_now s <? a_time a)%N = true
                                                                    \/ (a_time a <? dl)%N = true))
                 \/ (s_p s' = PNotify true /\ s_last s' = a_time a /\ (dl <= a_time a)%N /\ (a_time a <= s_now s)%N
                     /\ (s_cancel s = false \/ a_ok a = false))
  | PNotify k => s_p s' = PSyncing k false
  | PSyncing k f => (a_ok a = true /\ s_p s' = PSyncRet k f) \/
                    (a_ok a = false /\ s_p s' = PSyncSleep k f (s_now s + c_retry cfg)%N)
  | PSyncRet k f => (k = false /\ f = false /\ s_p s' = PSyncing false true) \/
                    ((k = true \/ f = true) /\ s_p s' = PW k WAcquire)
  | PSyncSleep k f dl => s_p s' = PSyncing k f
  | PW k w => (exists w', s_p s' = PW k w' /\
                 match w with
                 | WAcquire => w' = WGetState
                 | WGetState => exists st, w' = WWriting st
                 | WWriting _ => (a_ok a = true /\ w' = WWritten) \/
                                 (a_ok a = false /\ w' = WSleep (s_now s + c_retry cfg)%N)
                 | WWritten => False
                 | WSleep _ => w' = WAcquire
                 end)
              \/ (w = WWritten /\ s_p s' = (if k then PStart else PExit))
  | PExit => False
  end
  /\ (match s_p s with PTimer _ => True | _ => s_last s' = s_last s end).
Proof.
  intros _ H.
  destruct (pstep_cases H) as [pc pc' Ep J|dl Ep E1 E2 Ec|keep Ep|Ep|keep final Ep E|keep w s1 w' Ep Hw]; rewrite Ep.
  - destruct J as [|ch E|ch E|ch E|ch E E'|dl E|k f E|k f E|k f dl E]; cbn; splits; eauto.
    + (* PIdle, cancelled *) apply andb_true_iff in E. tauto.
    + (* PTimer, cancelled *) apply andb_true_iff in E. destruct E as [Ec E]. left. splits; auto. exact (timer_cancel_guard _ _ _ _ E).
  - cbn. splits; auto. right. splits; auto. apply andb_false_iff. exact Ec.
  - cbn. splits; auto.
  - cbn. splits; auto.
  - cbn. splits; auto. right. split; [|reflexivity]. destruct keep, final; auto; discriminate E.
  - destruct (wstep_fields Hw) as [p' [st' [ws' ->]]]. cbn.
    destruct (wstep_succ _ _ _ _ _ _ Hw) as [[w1 [-> T]]|[-> ->]]; splits; eauto.
Qed.

Inductive pint : ppc -> ppc -> Prop :=
| pi_start c : pint PStart (PSelect c)
| pi_select_t c dl : pint (PSelect c) (PTimer dl)
| pi_select_i c : pint (PSelect c) (PIdle c)
| pi_idle_n c : pint (PIdle c) (PNotify false)
| pi_idle_t c dl : pint (PIdle c) (PTimer dl)
| pi_timer dl : pint (PTimer dl) (PNotify false)
| pi_notify k : pint (PNotify k) (PSyncing k false)
| pi_ret_final : pint (PSyncRet false false) (PSyncing false true)
| pi_ret_write k f : k = true \/ f = true -> pint (PSyncRet k f) (PW k WAcquire)
| pi_acquire k : pint (PW k WAcquire) (PW k WGetState)
| pi_getstate k st : pint (PW k WGetState) (PW k (WWriting st))
| pi_restart : pint (PW true WWritten) PStart
| pi_exit : pint (PW false WWritten) PExit.

Lemma pstep_internal s s' : inv1 s -> p_internal cfg s = true -> pstep cfg internal_ans s = Some (Ok s') ->
  pint (s_p s) (s_p s') /\ s_last s' = s_last s.
Proof.
  intros _ Hi Hs. revert Hi. unfold p_internal, p_in_io, p_in_timer.
  destruct (pstep_cases Hs) as [pc pc' Ep J|dl Ep _ _ Ec|keep Ep|Ep|keep final Ep E|keep w s1 w' Ep Hw];
    rewrite Ep; cbn; intros Hi.
  - destruct J; cbn in Hi; try discriminate Hi; split; constructor.
  - rewrite Hi in Ec. discriminate Ec.
  - split; constructor.
  - split; constructor.
  - split; [constructor|reflexivity]. destruct keep, final; auto; discriminate E.
  - destruct (wstep_cases Hw); cbn in Hi; try discriminate Hi; (split; [|reflexivity]); cbn;
      [constructor|constructor|destruct keep; constructor].
Qed.

Lemma step_keepc s e s' : inv1 s -> keepc s -> step cfg s e = Some (Ok s') -> keepc s'.
Proof.
  intros II K Hs.
  destruct (env_or_step e) as [Hne|[t [a ->]]].
  { destruct (env_cases Hs (not_step_env _ Hne)); try exact K.
    unfold keepc. cbn. destruct (s_p s) as [| | | |[]|[]|[]|[]|[]|]; auto. }
  destruct t; cbn [step] in Hs.
  - pose proof (rstep_frame _ _ _ _ II Hs) as Ep. pose proof (rstep_cancel _ _ _ II Hs) as Ec.
    unfold keepc in *. rewrite Ep, Ec. exact K.
  - revert K. unfold keepc.
    destruct (pstep_cases Hs) as [pc pc' Ep J|dl Ep _ _ _|keep Ep|Ep|keep final Ep _|keep w s1 w' Ep Hw];
      rewrite Ep; cbn.
    + destruct J as [| | |ch E| |dl E|k f E|k f E|k f dl E]; cbn; auto; try (destruct k; auto);
        apply andb_true_iff in E; tauto.
    + auto.
    + destruct keep; auto.
    + auto.
    + destruct keep; auto.
    + destruct (wstep_fields Hw) as (p' & st' & ws' & ->). cbn. destruct w', keep; auto.
Qed.

(** the model-side invariant of the coarse executor *)
Definition good (s : sys) : Prop := sreach s /\ relc (s_pbl s) /\ keepc s.

Lemma good_inv1 s : good s -> inv1 s.
Proof. intros [R _]. eapply reachable_inv1; eauto. Qed.

Lemma step_good s e s' : good s -> step cfg s e = Some (Ok s') -> good s'.
Proof.
  intros G H. pose proof (good_inv1 _ G) as II. destruct G as [R [C K]]. split; [|split].
  - eapply reachable_step; eauto.
  - eapply act_relc; [exact (proj1 II)|exact C|]. eapply step_act; eauto.
  - eapply step_keepc; eauto.
Qed.

Lemma step_nopanic s e : good s -> step cfg s e <> Some Panic.
Proof.
  intros G H. destruct (step_inv1 _ _ _ _ (good_inv1 _ G) H) as [s' [E _]]. discriminate.
Qed.

Definition same_counters (x x' : xst) : Prop :=
  x_nalloc x' = x_nalloc x /\ x_nseed x' = x_nseed x /\ x_blk x' = x_blk x.

Lemma tstep_ok t a x x' : tstep cfg t a x = Some (Ok x') ->
  step cfg (x_sys x) (EStep t a) = Some (Ok (x_sys x')) /\ same_counters x x'
  /\ x_nwr x' = (if at_getstate t (x_sys x) then S (x_nwr x) else x_nwr x)
  /\ x_nsy x' = (match t with TP => if is_syncing (x_sys x') then S (x_nsy x) else x_nsy x | TR => x_nsy x end).
Proof.
  unfold tstep. destruct (step cfg (x_sys x) (EStep t a)) as [[s'|]|]; try discriminate.
  intros H; inversion H; subst; cbn. unfold same_counters. cbn. splits; auto.
Qed.

Lemma tstep_nopanic t a x : good (x_sys x) -> tstep cfg t a x <> Some Panic.
Proof.
  intros G. unfold tstep. pose proof (step_nopanic _ (EStep t a) G) as Hn.
  destruct (step cfg (x_sys x) (EStep t a)) as [[s'|]|]; try discriminate. congruence.
Qed.

Lemma env_step_ok x e x' : env_step cfg x e = Some (Ok x') ->
  step cfg (x_sys x) e = Some (Ok (x_sys x')) /\ same_counters x x' /\ x_nwr x' = x_nwr x /\ x_nsy x' = x_nsy x.
Proof.
  unfold env_step. destruct (step cfg (x_sys x) e) as [[s'|]|]; try discriminate.
  intros H; inversion H; subst; cbn. unfold same_counters. cbn. splits; auto.
Qed.

Lemma env_step_nopanic x e : good (x_sys x) -> env_step cfg x e <> Some Panic.
Proof.
  intros G. unfold env_step. pose proof (step_nopanic _ e G) as Hn.
  destruct (step cfg (x_sys x) e) as [[s'|]|]; try discriminate. congruence.
Qed.

Definition pick_of (rwins : bool) (s : sys) : option tid :=
  if r_internal cfg s && (negb (store_tie s) || rwins) then Some TR
  else if p_internal cfg s then Some TP
  else if r_internal cfg s then Some TR else None.

Lemma quiesce_S f rw x : quiesce cfg (S f) rw x =
  match pick_of rw (x_sys x) with
  | None => Ok x
  | Some t => match tstep cfg t internal_ans x with
              | None => Ok x
              | Some Panic => Panic
              | Some (Ok x') => quiesce cfg f rw x'
              end
  end.
Proof. reflexivity. Qed.

Definition t_internal (s : sys) (t : tid) : bool :=
  match t with TR => r_internal cfg s | TP => p_internal cfg s end.

Lemma pick_internal rw s t : pick_of rw s = Some t -> t_internal s t = true.
Proof.
  unfold pick_of, t_internal. destruct (r_internal cfg s) eqn:Er; cbn [andb].
  - destruct (negb (store_tie s) || rw).
    + intros H; inversion H; subst. reflexivity.
    + destruct (p_internal cfg s) eqn:Ep; intros H; inversion H; subst; reflexivity.
  - destruct (p_internal cfg s) eqn:Ep; intros H; inversion H; subst; reflexivity.
Qed.

Definition quiet (s : sys) : Prop := r_internal cfg s = false /\ p_internal cfg s = false.

Lemma pick_none rw s : pick_of rw s = None -> quiet s.
Proof.
  unfold pick_of, quiet. destruct (r_internal cfg s); cbn [andb].
  - destruct (negb (store_tie s) || rw); [discriminate|]. destruct (p_internal cfg s); discriminate.
  - destruct (p_internal cfg s); [discriminate|]. auto.
Qed.

Lemma internal_enabled s t : t_internal s t = true -> step cfg s (EStep t internal_ans) <> None.
Proof.
  destruct t; cbn [t_internal].
  - unfold r_internal, enabled. intros H. apply andb_true_iff in H. destruct H as [_ H].
    unfold internal_ans. destruct (step cfg s (EStep TR (mkAns true 0))); [discriminate|discriminate].
  - unfold p_internal. destruct (s_p s) as [|ch|ch|dl|keep|keep final|keep final|keep final dl|keep w|] eqn:Ep.
    4: { intros Hc. cbn [step]. unfold pstep. rewrite Ep, Hc. cbn. discriminate. }
    all: unfold enabled, internal_ans; intros H; apply andb_true_iff in H; destruct H as [_ H];
      destruct (step cfg s (EStep TP (mkAns true 0))); discriminate.
Qed.

Lemma quiesce_ind (P : xst -> Prop) :
  (forall x t x', P x -> good (x_sys x) -> t_internal (x_sys x) t = true ->
                  tstep cfg t internal_ans x = Some (Ok x') -> P x') ->
  forall f rw x x2, good (x_sys x) -> P x -> quiesce cfg f rw x = Ok x2 -> P x2 /\ good (x_sys x2).
Proof.
  intros Hstep. induction f as [|f IH]; intros rw x x2 G Px H.
  - cbn in H. inversion H; subst. auto.
  - rewrite quiesce_S in H. destruct (pick_of rw (x_sys x)) as [t|] eqn:Epick; [|inversion H; subst; auto].
    destruct (tstep cfg t internal_ans x) as [[x'|]|] eqn:Et; [| discriminate |inversion H; subst; auto].
    destruct (tstep_ok _ _ _ _ Et) as [Hs _].
    eapply IH; [| |exact H].
    + eapply step_good; eauto.
    + exact (Hstep x t x' Px G (pick_internal _ _ _ Epick) Et).
Qed.

Lemma quiesce_nopanic : forall f rw x, good (x_sys x) -> quiesce cfg f rw x <> Panic.
Proof.
  induction f as [|f IH]; intros rw x G; [discriminate|].
  rewrite quiesce_S. destruct (pick_of rw (x_sys x)) as [t|]; [|discriminate].
  destruct (tstep cfg t internal_ans x) as [[x'|]|] eqn:Et; [| |discriminate].
  - destruct (tstep_ok _ _ _ _ Et) as [Hs _]. apply IH. eapply step_good; eauto.
  - exfalso. eapply tstep_nopanic; eauto.
Qed.

Definition rk_r (r : rpc) : nat :=
  match r with
  | RStart => 4 | RWait _ => 3
  | RW WAcquire => 2 | RW WGetState => 1 | RW (WWriting _) => 0 | RW WWritten => 5 | RW (WSleep _) => 0
  end.
Definition rk_p (p : ppc) : nat :=
  match p with
  | PStart => 6 | PSelect _ => 5 | PIdle _ => 4 | PTimer _ => 3 | PNotify _ => 2
  | PSyncing _ _ => 0 | PSyncRet _ _ => 3 | PSyncSleep _ _ _ => 0
  | PW _ WAcquire => 2 | PW _ WGetState => 1 | PW _ (WWriting _) => 0 | PW _ WWritten => 7 | PW _ (WSleep _) => 0
  | PExit => 0
  end.
Definition rk (s : sys) : nat := rk_r (s_r s) + rk_p (s_p s).

Lemma rk_le s : rk s <= 12.
Proof.
  unfold rk. destruct (s_r s) as [| |[]]; destruct (s_p s) as [| | | | | | | |? []|]; cbn; lia.
Qed.

Lemma rstep_shape a s s' : rstep cfg a s = Some (Ok s') ->
  match s_r s with
  | RStart => exists c, s_r s' = RWait c
  | RWait _ => s_r s' = RW WAcquire
  | RW w => (exists w', s_r s' = RW w' /\
               match w with
               | WAcquire => w' = WGetState
               | WGetState => exists st, w' = WWriting st
               | WWriting _ => (a_ok a = true /\ w' = WWritten) \/
                               (a_ok a = false /\ w' = WSleep (s_now s + c_retry cfg)%N)
               | WWritten => False
               | WSleep _ => w' = WAcquire
               end)
            \/ (w = WWritten /\ s_r s' = RStart)
  end.
Proof.
  intros H. destruct (rstep_cases H) as [Er|ch Er _|w s1 w' Er Hw]; rewrite Er; cbn; eauto.
  destruct (wstep_succ _ _ _ _ _ _ Hw) as [[w1 [-> T]]|[-> ->]]; eauto.
Qed.

Lemma rk_step s t s' : inv1 s -> t_internal s t = true -> step cfg s (EStep t internal_ans) = Some (Ok s') ->
  rk s' < rk s.
Proof.
  intros II Hi Hs. destruct t; cbn [step t_internal] in *.
  - unfold rk. rewrite (rstep_frame _ _ _ _ II Hs). unfold r_internal, r_in_io, r_in_timer in Hi. revert Hi.
    destruct (rstep_cases Hs) as [Er|ch Er _|w s1 w' Er Hw]; rewrite Er; cbn; intros Hi; try lia.
    destruct (wstep_cases Hw); cbn in *; try discriminate Hi; lia.
  - pose proof (pstep_frame _ _ _ _ II Hs) as Er. destruct (pstep_internal _ _ II Hi Hs) as [P _].
    unfold rk. rewrite Er. destruct P; cbn; lia.
Qed.

Lemma rk0_quiet s : rk s = 0 -> quiet s.
Proof.
  unfold rk, quiet. intros Hz. assert (rk_r (s_r s) = 0 /\ rk_p (s_p s) = 0) as [Hr Hp] by lia. split.
  - unfold r_internal, r_in_io, r_in_timer. revert Hr.
    destruct (s_r s) as [| |[]]; cbn [rk_r]; intros Hr; try lia; reflexivity.
  - unfold p_internal, p_in_io, p_in_timer, enabled. cbn [step]. unfold pstep. revert Hp.
    destruct (s_p s) as [| | | | | | | |? []|]; cbn [rk_p]; intros Hp; try lia; reflexivity.
Qed.

Lemma quiesce_quiet : forall f rw x x2, good (x_sys x) -> rk (x_sys x) <= f ->
  quiesce cfg f rw x = Ok x2 -> quiet (x_sys x2).
Proof.
  induction f as [|f IH]; intros rw x x2 G Hr H.
  - cbn in H. inversion H; subst. apply rk0_quiet. lia.
  - rewrite quiesce_S in H. destruct (pick_of rw (x_sys x)) as [t|] eqn:Epick.
    + pose proof (pick_internal _ _ _ Epick) as Hi.
      destruct (tstep cfg t internal_ans x) as [[x'|]|] eqn:Et; [|discriminate|].
      * destruct (tstep_ok _ _ _ _ Et) as [Hs _].
        eapply IH; [| |exact H].
        -- eapply step_good; eauto.
        -- pose proof (rk_step _ _ _ (good_inv1 _ G) Hi Hs). lia.
      * exfalso. unfold tstep in Et. pose proof (internal_enabled _ _ Hi) as Hn.
        destruct (step cfg (x_sys x) (EStep t internal_ans)) as [[s'|]|]; try discriminate. congruence.
    + inversion H; subst. eapply pick_none; eauto.
Qed.

Lemma quiesce_good f rw x x2 : good (x_sys x) -> quiesce cfg f rw x = Ok x2 -> good (x_sys x2).
Proof. intros G H. exact (proj2 (quiesce_ind (fun _ => True) (fun _ _ _ _ _ _ _ => I) f rw x x2 G I H)). Qed.

Lemma quiesce_quiet64 rw x x2 : good (x_sys x) -> quiesce cfg 64 rw x = Ok x2 -> quiet (x_sys x2).
Proof. intros G. apply quiesce_quiet; [exact G|]. pose proof (rk_le (x_sys x)). lia. Qed.

Lemma quiesce_total rw x : good (x_sys x) ->
  exists x2, quiesce cfg 64 rw x = Ok x2 /\ good (x_sys x2) /\ quiet (x_sys x2).
Proof.
  intros G. destruct (quiesce cfg 64 rw x) as [x2|] eqn:E.
  - exists x2. split; [reflexivity|]. split; [eapply quiesce_good|eapply quiesce_quiet64]; eauto.
  - exfalso. eapply quiesce_nopanic; eauto.
Qed.

End Model.
