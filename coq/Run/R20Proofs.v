(** C20: the monitor of Run/R20.v is silent on the model's own output
    ([judge20] is deterministic: [mon20 inp (run20 inp) = []]).

    Hypotheses ([inp_wf20]); witnesses at the end of this file show the size
    bounds, the byte-atom bound and the index bound necessary (none is given for
    "function atom >= 0" or "exactly four fields"):
      - structured digests (kind 3): the size is below 2^63 (an int64);
      - digest sets (kind 6): every universe entry is written canonically
        (byte atoms >= 0, function atom >= 0, exactly four fields) with a size
        below 2^63, and set members are indices into the universe.
    harness/c20.go takes sizes as int64, bytes as 0..255 and builds the entries
    itself, so none of the witnesses is an input the harness can produce. *)
From Coq Require Import List NArith ZArith Bool Lia.
Import ListNotations.
From BBS Require Import Common.Sx Generated.Consts Digest.DigestModel Digest.SetModel
  Digest.DigestProofs Digest.SetProofs Digest.MonSilentDigest Run.MonSilentSx Run.R20 Run.R20X.
From BBS Require Common.SxFactsMA.
Open Scope Z_scope.

Lemma sxb_enc b : sxb (enc_bytes b) = b.
Proof.
  unfold sxb, enc_bytes, sx_Ns, of_Ns. cbn [sx_list]. rewrite map_map.
  induction b as [|x b IH]; [reflexivity|]. cbn [map]. rewrite SxFactsMA.sx_N_of_N, IH. reflexivity.
Qed.

Lemma has_panic_L l : has_panic (L l) = existsb has_panic l.
Proof. induction l as [|x r IH]; [reflexivity|]. cbn [existsb]. rewrite <- IH. reflexivity. Qed.

Lemma has_panic_A z : z <> -1 -> has_panic (A z) = false.
Proof. intro H. cbn. apply Z.eqb_neq. exact H. Qed.

Lemma has_panic_of_N n : has_panic (of_N n) = false.
Proof. apply has_panic_A. lia. Qed.

Lemma has_panic_of_nat n : has_panic (of_nat n) = false.
Proof. apply has_panic_A. lia. Qed.

Lemma has_panic_map {T} (f : T -> sx) l :
  (forall x, In x l -> has_panic (f x) = false) -> has_panic (L (map f l)) = false.
Proof.
  intro H. rewrite has_panic_L. induction l as [|x r IH]; [reflexivity|]. cbn [map existsb].
  rewrite H by (left; reflexivity). apply IH. intros y Hy. apply H. right. exact Hy.
Qed.

Lemma has_panic_bytes b : has_panic (enc_bytes b) = false.
Proof. apply has_panic_map. intros. apply has_panic_of_N. Qed.

Lemma has_panic_list l : has_panic (enc_list l) = false.
Proof. apply has_panic_map. intros. apply has_panic_bytes. Qed.

Lemma has_panic_sets l : has_panic (enc_sets l) = false.
Proof. apply has_panic_map. intros. apply has_panic_list. Qed.

Lemma has_panic_cons x l : has_panic (L (x :: l)) = has_panic x || has_panic (L l).
Proof. rewrite !has_panic_L. reflexivity. Qed.

Lemma has_panic_nil : has_panic (L []) = false.
Proof. reflexivity. Qed.

#[local] Hint Rewrite @has_panic_cons has_panic_nil has_panic_bytes has_panic_of_N has_panic_of_nat
  has_panic_list has_panic_sets : hp.

Lemma status_err_pos c : status_err c -> 0 < c.
Proof. intros [-> | ->]; reflexivity. Qed.

Lemma has_panic_parsed fields o : parsed fields o -> has_panic (enc_parse o) = false.
Proof.
  destruct o as [[v c]|e|]; cbn [parsed enc_parse enc_out fst snd]; intro P; [| |destruct P]; autorewrite with hp.
  - reflexivity.
  - apply status_err_pos in P. rewrite has_panic_A by lia. reflexivity.
Qed.

Definition dobs_of (d : digest) (hb cb : bytes) (parents : list bytes) : sx :=
  L [enc_bytes (pack d);
     L [A 0; of_N (d_fn d)];
     L [A 0; enc_bytes (d_hash d)];
     L [A 0; A (d_size d)];
     L [A 0; enc_bytes (d_inst d)];
     L [A 0; enc_bytes (key0 d)];
     L [A 0; L [enc_bytes (d_hash d); A (d_size d)]];
     L [A 0; enc_bytes hb];
     L [A 0; enc_bytes cb];
     L [A 0; enc_list parents]].

Lemma enc_dobs_valid d :
  valid_digest d ->
  exists hb cb comps,
    hex_encode hb = d_hash d /\ d_inst d = join_slash comps /\ Forall valid_component comps
    /\ enc_dobs (pack d)
       = dobs_of d hb cb (map (fun p => pack (with_instance d (join_slash p))) (prefixes comps)).
Proof.
  intro V. destruct (pack_unpack_accessors d V) as (H1 & H2 & H3 & H4 & H5 & _ & H7 & (hb & H8 & Hhb) & (b & H9 & _)).
  destruct (vd_inst d V) as (comps & Hi & Hc).
  exists hb, (d_fn d :: b ++ put_varint (d_size d)), comps.
  split; [exact Hhb|]. split; [exact Hi|]. split; [exact Hc|].
  unfold enc_dobs. rewrite H1, H2, H3, H4, H5, H7, H8, H9, (parents_spec_proof d comps V Hi Hc).
  reflexivity.
Qed.

Lemma seq_prefixes_eq {T} (l : list T) : seq_prefixes l = prefixes l.
Proof.
  unfold seq_prefixes. induction l as [|x r IH]; [reflexivity|].
  cbn [length]. change (seq 0 (S (S (length r)))) with (0%nat :: seq 1 (S (length r))).
  rewrite <- seq_shift, map_cons, map_map. cbn [prefixes firstn].
  rewrite <- IH, map_map. reflexivity.
Qed.

Lemma instance_name_cases v :
  (inst_wf v = true /\ new_instance_name v = Ok v /\ valid_instance v /\ join_slash (fields_by_slash v) = v
   /\ validate_components (fields_by_slash v) = Ok tt)
  \/ (inst_wf v = false /\ new_instance_name v = Err InvalidArgument).
Proof. exact (new_instance_name_cases v). Qed.

Lemma valid_inst_wf v : valid_instance v -> inst_wf v = true.
Proof.
  intro H. apply instance_name_accepts_valid_proof in H.
  destruct (instance_name_cases v) as [(W & _)|(_ & E)]; [exact W|congruence].
Qed.

Lemma is_supported_true fn : In fn supported_enums -> is_supported fn = true.
Proof.
  intro H. destruct (supported_entry _ H) as (n & Hn). unfold is_supported.
  apply existsb_exists. exists (fn, n). split; [exact Hn|apply N.eqb_refl].
Qed.

Lemma is_supported_in fn : is_supported fn = true -> In fn supported_enums.
Proof.
  unfold is_supported. intro H. apply existsb_exists in H. destruct H as ([f n] & Hin & E).
  cbn in E. apply N.eqb_eq in E. subst. unfold supported_enums. apply in_map_iff. exists (fn, n). auto.
Qed.

Lemma has_panic_dobs d hb cb ps : 0 <= d_size d -> has_panic (dobs_of d hb cb ps) = false.
Proof.
  intro Hs. unfold dobs_of. cbn [has_panic].
  rewrite !has_panic_bytes, has_panic_of_N, has_panic_list, (proj2 (Z.eqb_neq (d_size d) (-1))) by lia. reflexivity.
Qed.

Lemma dobs_wf_valid d hb cb ps : valid_digest d -> dobs_wf (dobs_of d hb cb ps) = true.
Proof.
  intros [Hfn (hbs & Hhb & Hlen) Hhex Hsz Hinst]. unfold dobs_wf, dobs_of.
  cbn [sx_nth sx_list nth is_ok ok_val andb sx_Z]. rewrite SxFactsMA.sx_N_of_N, !sxb_enc.
  rewrite (is_supported_true _ Hfn), Hhex, (valid_inst_wf _ Hinst).
  change (hash_size_of (d_fn d)) with (hash_bytes_of (d_fn d)). rewrite Hhb.
  rewrite (proj2 (N.eqb_eq _ _) Hlen).
  rewrite (proj2 (Z.leb_le _ _) (proj1 Hsz)), (proj2 (Z.ltb_lt _ _) (proj2 Hsz)). reflexivity.
Qed.

Lemma dobs_consistent_valid d hb cb comps :
  valid_digest d -> hex_encode hb = d_hash d -> d_inst d = join_slash comps -> Forall valid_component comps ->
  dobs_consistent (dobs_of d hb cb (map (fun p => pack (with_instance d (join_slash p))) (prefixes comps))) = true.
Proof.
  intros V Hhb Hi Hc. pose proof (vd_size d V) as Hsz.
  unfold dobs_consistent, dobs_of. cbn [sx_nth sx_list nth ok_val sx_Z]. rewrite SxFactsMA.sx_N_of_N, !sxb_enc.
  fold (key0 d). rewrite beqb_refl, <- (pack_shape d) by lia. rewrite !beqb_refl, Z.eqb_refl, Hhb, beqb_refl.
  cbn [andb].
  unfold spec_components. rewrite Hi.
  destruct (valid_component_facts comps Hc) as (_ & Hgf & _).
  rewrite (fields_join comps Hgf), seq_prefixes_eq.
  match goal with |- sx_eqb ?a ?b = true => replace b with a; [apply sx_eqb_refl|] end.
  f_equal. apply map_ext. intro p.
  rewrite (pack_shape (with_instance d (join_slash p))) by (cbn; lia). reflexivity.
Qed.

Lemma dobs_facts d :
  valid_digest d ->
  has_panic (enc_dobs (pack d)) = false
  /\ dobs_wf (enc_dobs (pack d)) = true
  /\ dobs_consistent (enc_dobs (pack d)) = true
  /\ sx_nth (enc_dobs (pack d)) 0 = enc_bytes (pack d)
  /\ sx_nth (enc_dobs (pack d)) 1 = L [A 0; of_N (d_fn d)]
  /\ sx_nth (enc_dobs (pack d)) 2 = L [A 0; enc_bytes (d_hash d)]
  /\ sx_nth (enc_dobs (pack d)) 3 = L [A 0; A (d_size d)]
  /\ sx_nth (enc_dobs (pack d)) 4 = L [A 0; enc_bytes (d_inst d)].
Proof.
  intro V. destruct (enc_dobs_valid d V) as (hb & cb & comps & Hhb & Hi & Hc & ->).
  pose proof (vd_size d V) as Hsz.
  split; [apply has_panic_dobs; lia|]. split; [apply dobs_wf_valid, V|].
  split; [apply dobs_consistent_valid; assumption|]. repeat split; reflexivity.
Qed.

Lemma ptail_decimal neg ds z :
  ptail neg ds = Some z ->
  nonempty ds && forallb is_digit ds && Z.eqb (if neg then - Z.of_N (horner 0 ds) else Z.of_N (horner 0 ds)) z = true.
Proof.
  unfold ptail. destruct ds as [|c r]; [discriminate|]. destruct (forallb is_digit (c :: r)); [|discriminate].
  cbv zeta. destruct neg; [destruct (N.leb _ _)|destruct (N.ltb _ _)]; try discriminate; intros [= <-]; apply Z.eqb_refl.
Qed.

Lemma parse_int_decimal s z : parse_int s = Some z -> decimal_of s z = true.
Proof.
  destruct s as [|c r]; [discriminate|]. rewrite parse_int_cons. unfold decimal_of.
  destruct (N.eqb c 43); [|destruct (N.eqb c dash)]; apply ptail_decimal.
Qed.

Lemma adjacent_fields_intro h z s post : forall pre,
  decimal_of s z = true -> adjacent_fields h z (pre ++ h :: s :: post) = true.
Proof.
  induction pre as [|x pre IH]; intro H.
  - cbn [app adjacent_fields]. rewrite beqb_refl, H. reflexivity.
  - cbn [app]. specialize (IH H).
    destruct (pre ++ h :: s :: post) as [|y rest] eqn:E; [destruct pre; discriminate|].
    change (adjacent_fields h z (x :: y :: rest))
      with ((beqb x h && decimal_of y z) || adjacent_fields h z (y :: rest)).
    rewrite IH. apply orb_true_r.
Qed.

Section ParseKinds.
  Variable parse : bytes -> outcome (bytes * N).
  Variable fmt : bytes -> N -> outcome bytes.
  Hypothesis parse_spec : forall s, parsed (fields_by_slash s) (parse s).
  Hypothesis round_trip : forall d c, valid_digest d -> valid_compressor c ->
    exists s, fmt (pack d) c = Ok s /\ parse s = Ok (pack d, c).

  Lemma mon_parse_silent clause path : mon_parse clause path (run_parse parse fmt path) = [].
  Proof.
    unfold run_parse. pose proof (parse_spec path) as P. destruct (parse path) as [[v c]|e|]; cbn [parsed] in P.
    - destruct P as (d & sz & V & -> & Hc & Hadj & Hsz).
      destruct (round_trip d c V Hc) as (s & Hf & Hr). rewrite Hf. cbn [after_format enc_out]. rewrite Hr.
      cbn [enc_parse enc_out fst snd].
      destruct (dobs_facts d V) as (Hp & Hwf & Hcons & E0 & _ & E2 & E3 & _).
      unfold mon_parse. cbn [head_is0]. cbn [sx_nth sx_list nth].
      rewrite Hwf, Hcons, E0, E2, E3. cbn [ok_val sx_Z]. rewrite sxb_enc.
      destruct Hadj as (pre & post & ->).
      rewrite (adjacent_fields_intro _ _ _ _ _ (parse_int_decimal _ _ Hsz)), sx_eqb_refl.
      cbn [has_panic]. rewrite Hp, !has_panic_bytes, !has_panic_of_N. reflexivity.
    - apply status_err_pos in P.
      unfold mon_parse. cbn [head_is0]. destruct e; try lia.
      rewrite has_panic_cons, has_panic_nil, has_panic_A by lia. reflexivity.
    - destruct P.
  Qed.
End ParseKinds.

Lemma in_firstn {T} (x : T) n l : In x (firstn n l) -> In x l.
Proof. intro H. rewrite <- (firstn_skipn n l). apply in_or_app. left. exact H. Qed.
Lemma in_skipn {T} (x : T) n l : In x (skipn n l) -> In x l.
Proof. intro H. rewrite <- (firstn_skipn n l). apply in_or_app. right. exact H. Qed.

Lemma hex_encode_no_slash b : ~ In slash (hex_encode b).
Proof.
  assert (Hd : forall v, hexdigit v <> slash).
  { intro v. unfold hexdigit, slash. destruct (N.ltb v 10); lia. }
  induction b as [|x b IH]; [intros []|]. cbn [hex_encode]. intros [E|[E|H]]; [eapply Hd|eapply Hd|]; eauto.
Qed.

Lemma uuid_string_ok u : uuid_string u <> [] /\ ~ In slash (uuid_string u).
Proof.
  unfold uuid_string. split.
  - intro E. apply app_eq_nil in E. destruct E as [_ E]. discriminate.
  - pose proof (hex_encode_no_slash u) as Hn.
    intro H. repeat (apply in_app_or in H; destruct H as [H|H];
                     [apply Hn; repeat (first [apply in_firstn in H|apply in_skipn in H]); exact H|];
                     destruct H as [E|H]; [unfold dash, slash in E; lia|]).
    apply Hn. repeat (first [apply in_firstn in H|apply in_skipn in H]). exact H.
Qed.

Lemma silent_read_path path : mon_parse 2 path (run_parse parse_read_path get_read_path path) = [].
Proof.
  apply mon_parse_silent; [apply parse_read_path_spec|apply read_path_roundtrip_proof].
Qed.

Lemma silent_write_path uuid path :
  mon_parse 3 path (run_parse parse_write_path (fun v c => get_write_path v (uuid_string uuid) c) path) = [].
Proof.
  apply mon_parse_silent; [apply parse_write_path_spec|].
  intros d c V Hc. destruct (uuid_string_ok uuid) as [H1 H2]. apply write_path_roundtrip_proof; assumption.
Qed.

Lemma silent_instance_name name : mon_instance_name name (run_instance_name name) = [].
Proof.
  unfold run_instance_name. destruct (instance_name_cases name) as [(W & -> & _ & Hj & Hval)|(W & ->)].
  - unfold new_instance_name_from_components. rewrite Hval. cbn [bind enc_out]. rewrite Hj.
    unfold mon_instance_name. cbn [head_is0]. cbn [sx_nth sx_list nth].
    rewrite W, sxb_enc, beqb_refl, !sx_eqb_refl.
    autorewrite with hp. reflexivity.
  - unfold mon_instance_name. cbn [head_is0]. rewrite W. reflexivity.
Qed.

Lemma silent_compact inst inp : mon_compact (run_compact inst inp) = [].
Proof.
  unfold run_compact. destruct (instance_name_cases inst) as [(_ & -> & Hv & _)|(_ & ->)]; [|reflexivity].
  pose proof (compact_cases inst inp) as C.
  destruct (new_digest_from_compact_binary inst inp) as [[v rest]|c|]; [| |destruct C].
  - destruct (C Hv) as (d & V & -> & _).
    destruct (dobs_facts d V) as (Hp & Hwf & Hcons & _).
    unfold mon_compact. cbn [head_is0]. cbn [sx_nth sx_list nth]. rewrite Hwf, Hcons.
    cbn [has_panic]. rewrite Hp, has_panic_of_nat. reflexivity.
  - unfold mon_compact.
    assert (Hh : head_is0 (L [A c]) = false) by (destruct c; try lia; reflexivity).
    rewrite Hh, has_panic_cons, has_panic_nil, has_panic_A by lia. reflexivity.
Qed.

Lemma by_enum_key_ok : forallb (fun p : N * bare => N.eqb (fst p) (fst (snd p))) c20_bare_by_enum = true.
Proof. vm_compute. reflexivity. Qed.
Lemma by_size_key_ok : forallb (fun p : N * bare => N.eqb (fst p) (2 * snd (snd p))) c20_bare_by_size = true.
Proof. vm_compute. reflexivity. Qed.

Lemma by_enum_fst fn f : assoc fn c20_bare_by_enum = Some f -> fst f = fn.
Proof.
  intro H. apply assoc_In in H. pose proof by_enum_key_ok as T. rewrite forallb_forall in T.
  specialize (T _ H). cbn in T. apply N.eqb_eq in T. auto.
Qed.
Lemma by_size_len k f : assoc k c20_bare_by_size = Some f -> (k = 2 * snd f)%N.
Proof.
  intro H. apply assoc_In in H. pose proof by_size_key_ok as T. rewrite forallb_forall in T.
  specialize (T _ H). cbn in T. apply N.eqb_eq in T. auto.
Qed.

Lemma valid_comp_true c : valid_comp c = true -> valid_compressor c.
Proof.
  unfold valid_comp, valid_compressor. intro H. apply orb_prop in H. destruct H as [H|H].
  - left. apply N.eqb_eq. exact H.
  - right. apply existsb_exists in H. destruct H as ([c' n] & Hin & E). cbn in E. apply N.eqb_eq in E. subst.
    apply in_map_iff. exists (c, n). auto.
Qed.

Lemma flag_false n b : b = false -> flag n b = [].
Proof. intros ->. reflexivity. Qed.

Lemma mon_structured_accepted inp d o2 o3 o4 o5 o6 o7 :
  let fn := sx_N (sx_nth inp 2) in
  let comp := sx_N (sx_nth inp 5) in
  let key1 := enc_bytes (pack d) in
  valid_digest d ->
  d_inst d = sxb (sx_nth inp 1) -> d_hash d = sxb (sx_nth inp 3) -> d_size d = sx_Z (sx_nth inp 4) ->
  N.eqb fn c20_enum_unknown || N.eqb (d_fn d) fn = true ->
  has_panic (L [o2; o3; o4; o5; o6; o7]) = false ->
  (valid_comp comp = true -> o3 = L [A 0; L [key1; of_N comp]]) ->
  (valid_comp comp = true -> o5 = L [A 0; L [key1; of_N comp]]) ->
  o6 = L [A 0; key1] -> o7 = L [A 0; L [key1; A 2]] ->
  mon_structured inp (L [A 0; enc_dobs (pack d); o2; o3; o4; o5; o6; o7]) = [].
Proof.
  intros fn comp key1 V Hi Hh Hs Hfn Hp H3 H5 H6 H7.
  destruct (dobs_facts d V) as (Hpd & Hwf & Hcons & E0 & E1 & E2 & E3 & E4).
  unfold mon_structured. cbv zeta. rewrite 2!has_panic_cons, Hp, Hpd, has_panic_A by discriminate.
  cbn [sx_nth sx_list nth sx_Z].
  rewrite Hwf, Hcons, E0, E1, E2, E3, E4, H6, H7. cbn [ok_val]. rewrite SxFactsMA.sx_N_of_N, !sxb_enc, <- Hi, <- Hh, <- Hs.
  rewrite !beqb_refl, Z.eqb_refl, !sx_eqb_refl. fold fn. rewrite Hfn.
  fold comp key1. destruct (valid_comp comp); [|reflexivity].
  rewrite (H3 eq_refl), (H5 eq_refl), !sx_eqb_refl. reflexivity.
Qed.

Lemma silent_structured inp :
  sx_Z (sx_nth inp 4) < 2 ^ 63 ->
  mon_structured inp (run_structured (sxb (sx_nth inp 1)) (sx_N (sx_nth inp 2)) (sxb (sx_nth inp 3))
                                     (sx_Z (sx_nth inp 4)) (sx_N (sx_nth inp 5)) (sxb (sx_nth inp 6))) = [].
Proof.
  intro Hsz.
  remember (sxb (sx_nth inp 1)) as inst eqn:Ri. remember (sx_N (sx_nth inp 2)) as fn eqn:Rf.
  remember (sxb (sx_nth inp 3)) as hash eqn:Rh. remember (sx_Z (sx_nth inp 4)) as size eqn:Rs.
  set (comp := sx_N (sx_nth inp 5)). unfold run_structured. set (uuid := uuid_string (sxb (sx_nth inp 6))).
  destruct (instance_name_cases inst) as [(_ & -> & Hvi & _)|(W & ->)].
  2:{ unfold mon_structured. cbv zeta. cbn [sx_nth sx_list nth sx_Z]. rewrite <- Ri, W. reflexivity. }
  unfold get_digest_function.
  destruct (get_bare_function fn (N.of_nat (length hash))) as [f|] eqn:Egb.
  2:{ unfold mon_structured. cbv zeta. cbn [sx_nth sx_list nth sx_Z]. rewrite <- Rf, <- Rh.
      unfold get_bare_function in Egb.
      destruct (N.eqb fn c20_enum_unknown) eqn:Eu.
      - rewrite Egb. reflexivity.
      - destruct (is_supported fn) eqn:Es; [|reflexivity]. exfalso.
        apply is_supported_in in Es. destruct (supported_facts _ Es) as (_ & _ & _ & hb & Ha & _).
        rewrite Ha in Egb. discriminate. }
  destruct (new_digest inst f hash size) as [v|c|] eqn:En.
  3:{ exfalso. eapply new_digest_no_panic; eauto. }
  2:{ pose proof (new_digest_err _ _ _ _ _ En) as ->.
      unfold mon_structured. cbv zeta. cbn [sx_nth sx_list nth sx_Z]. rewrite <- Rf, <- Rh, <- Rs.
      rewrite new_digest_eq in En.
      destruct (N.eqb (N.of_nat (length hash)) (2 * snd f)) eqn:El; cbn [andb] in En.
      - destruct (forallb lowerhex hash && (0 <=? size)) eqn:C; [discriminate|].
        rewrite <- andb_assoc, C, andb_false_r. reflexivity.
      - unfold get_bare_function in Egb. destruct (N.eqb fn c20_enum_unknown).
        + apply by_size_len in Egb. rewrite Egb, N.eqb_refl in El. discriminate.
        + unfold hash_size_of. rewrite Egb, El. reflexivity. }
  (* accepted *)
  destruct (new_digest_ok _ _ _ _ _ _ _ Hvi Egb Hsz En) as [V ->].
  set (d0 := {| d_fn := fst f; d_hash := hash; d_size := size; d_inst := inst |}) in *.
  destruct (get_paths_pack d0 uuid comp V) as (Hrp & Hwp).
  set (srp := path_join _) in Hrp. set (swp := path_join _) in Hwp.
  destruct (pack_unpack_accessors d0 V) as (_ & _ & _ & _ & H5 & _).
  destruct (compact_roundtrip_proof d0 trailing_garbage V) as (cb & Hcb & Hcrt).
  rewrite Hrp, Hwp, H5, Hcb. cbn [d_hash d_size d_inst d0] in *. rewrite En, Hcrt. cbn [after_format enc_out fst snd].
  apply (mon_structured_accepted inp d0 _ _ _ _ _ _ V Ri Rh Rs).
  - rewrite <- Rf. unfold get_bare_function in Egb. cbn [d_fn d0]. destruct (N.eqb fn c20_enum_unknown); [reflexivity|].
    apply by_enum_fst in Egb. rewrite Egb. apply N.eqb_refl.
  - cbn [has_panic].
    rewrite (has_panic_parsed _ _ (parse_read_path_spec srp)), (has_panic_parsed _ _ (parse_write_path_spec swp)).
    rewrite !has_panic_bytes, has_panic_of_nat. reflexivity.
  - intro Hc. destruct (read_path_roundtrip_proof d0 comp V (valid_comp_true _ Hc)) as (s & Hs1 & Hs2).
    rewrite Hrp in Hs1. injection Hs1 as <-. rewrite Hs2. reflexivity.
  - intro Hc. destruct (uuid_string_ok (sxb (sx_nth inp 6))) as [U1 U2].
    destruct (write_path_roundtrip_proof d0 uuid comp V (valid_comp_true _ Hc) U1 U2) as (s & Hs1 & Hs2).
    rewrite Hwp in Hs1. injection Hs1 as <-. rewrite Hs2. reflexivity.
  - reflexivity.
  - reflexivity.
Qed.

(** ** The set monitor, clause by clause (see [mon_sets_obs]) *)
Definition m_noinst (e : sx) := L [sx_nth e 1; sx_nth e 2; sx_nth e 3].
Definition c6 (entries : list sx) (us k0 : list bytes) : bool :=
  negb (forallb (fun i => forallb (fun j =>
          Bool.eqb (beqb (nth i us []) (nth j us [])) (sx_eqb (nth i entries (L [])) (nth j entries (L [])))
          && Bool.eqb (beqb (nth i k0 []) (nth j k0 []))
                      (sx_eqb (m_noinst (nth i entries (L []))) (m_noinst (nth j entries (L [])))))
        (seq 0 (length entries))) (seq 0 (length entries)))
  || negb (Nat.eqb (length us) (length entries)) || negb (Nat.eqb (length k0) (length entries)).
Definition c11 (built : list (list bytes)) (u : list bytes) (o8 o3 : sx) : bool :=
  negb (strictly_sorted u && same_set u (concat built)) || negb (sx_eqb o8 o3).
Definition c13 entries us (u : list bytes) (o5 : sx) : bool :=
  negb (sx_eqb o5 (L [A 0; enc_sets (map (fun i => filter (fun x => beqb (x_inst_of entries us x) i) u)
                                         (first_occ [] (map (x_inst_of entries us) u)))])).
Definition c14 entries us (u : list bytes) (o6 : sx) : bool :=
  negb (sx_eqb o6 (L [A 0; enc_list (filter (fun x => negb (x_size_of entries us x =? 0)) u)])).
Definition c15 (built : list (list bytes)) (o7 : sx) : bool :=
  negb (sx_eqb o7 (L (map (fun s => of_option enc_bytes (match s with [] => None | x :: _ => Some x end)) built))).

Lemma strictly_sorted_of l : sorted l -> strictly_sorted l = true.
Proof.
  induction l as [|x r IH]; intro H; [reflexivity|]. cbn [strictly_sorted].
  destruct r as [|y r']; [reflexivity|].
  pose proof (sorted_head_lt x (y :: r') y H (or_introl eq_refl)) as Hlt. unfold blt in Hlt. rewrite Hlt.
  apply IH. eapply sorted_tail; eauto.
Qed.

Lemma subset_intro a b : (forall x, In x a -> In x b) -> subset a b = true.
Proof. intro H. unfold subset. apply forallb_forall. intros x Hx. apply memb_In, H, Hx. Qed.

Lemma same_set_intro a b : (forall x, In x a <-> In x b) -> same_set a b = true.
Proof. intro H. unfold same_set. rewrite !subset_intro; [reflexivity| |]; intros x Hx; apply H, Hx. Qed.

Lemma sorted_ext a : forall b, sorted a -> sorted b -> (forall x, In x a <-> In x b) -> a = b.
Proof.
  induction a as [|x a IH]; intros b Ha Hb H.
  - destruct b as [|y b]; [reflexivity|]. exfalso. apply (H y). left. reflexivity.
  - destruct b as [|y b]; [exfalso; apply (H x); left; reflexivity|].
    assert (Exy : x = y).
    { destruct (proj1 (H x) (or_introl eq_refl)) as [E|Hxb]; [auto|].
      destruct (proj2 (H y) (or_introl eq_refl)) as [E|Hya]; [auto|].
      pose proof (sorted_head_lt _ _ _ Hb Hxb) as L1. pose proof (sorted_head_lt _ _ _ Ha Hya) as L2.
      unfold blt in *. rewrite (bltb_asym _ _ L1) in L2. discriminate. }
    subst y. f_equal. apply IH; [eapply sorted_tail; eauto|eapply sorted_tail; eauto|].
    pose proof (sorted_NoDup _ Ha) as Na. pose proof (sorted_NoDup _ Hb) as Nb.
    inversion Na; inversion Nb; subst.
    intro z. split; intro Hz.
    + destruct (proj1 (H z) (or_intror Hz)) as [E|Hzb]; [subst; contradiction|exact Hzb].
    + destruct (proj2 (H z) (or_intror Hz)) as [E|Hza]; [subst; contradiction|exact Hza].
Qed.

Lemma first_occ_firsts_gen l : forall acc seen,
  (forall x, memb x seen = existsb (beqb x) acc) ->
  fold_left (fstep beqb) l acc = acc ++ first_occ seen l.
Proof.
  induction l as [|x r IH]; intros acc seen H; cbn [fold_left first_occ]; [rewrite app_nil_r; reflexivity|].
  unfold fstep at 2. rewrite <- H. destruct (memb x seen) eqn:E.
  - apply IH, H.
  - rewrite (IH (acc ++ [x]) (x :: seen)).
    + rewrite <- app_assoc. reflexivity.
    + intro y. rewrite existsb_app. cbn [memb existsb]. unfold memb in H. rewrite <- H.
      unfold memb. rewrite orb_false_r. apply orb_comm.
Qed.

Lemma first_occ_firsts l : first_occ [] l = firsts beqb l.
Proof. unfold firsts. rewrite (first_occ_firsts_gen l [] []); [reflexivity|]. intro x. reflexivity. Qed.

Lemma filter_map_comm {X Y} (p : Y -> bool) (f : X -> Y) l :
  filter p (map f l) = map f (filter (fun x => p (f x)) l).
Proof.
  induction l as [|x r IH]; [reflexivity|]. cbn [map filter]. destruct (p (f x)); cbn [map]; rewrite IH; reflexivity.
Qed.

Lemma nth_map_lt {X Y} (f : X -> Y) l i dx dy : (i < length l)%nat -> nth i (map f l) dy = f (nth i l dx).
Proof. intro H. rewrite (nth_indep _ dy (f dx)) by (rewrite map_length; exact H). apply map_nth. Qed.

Lemma eqb_iff (a b : bool) : (a = true <-> b = true) -> Bool.eqb a b = true.
Proof. destruct a, b; intros [H1 H2]; try reflexivity; [specialize (H1 eq_refl)|specialize (H2 eq_refl)]; discriminate. Qed.

Lemma dec_enc_list l : map sxb (sx_list (enc_list l)) = l.
Proof.
  unfold enc_list. cbn [sx_list]. rewrite map_map. rewrite <- (map_id l) at 2. apply map_ext. apply sxb_enc.
Qed.

Lemma dec_enc_sets l : map (fun s => map sxb (sx_list s)) (sx_list (enc_sets l)) = l.
Proof.
  unfold enc_sets. cbn [sx_list]. rewrite map_map. rewrite <- (map_id l) at 2. apply map_ext. apply dec_enc_list.
Qed.

Lemma mon_sets_obs inp o0 o1 o2 o3 oa bo ob o5 o6 o7 o8 :
  let obs := L [o0; o1; o2; o3; L [oa; bo; ob]; o5; o6; o7; o8] in
  let lst (s : sx) := map sxb (sx_list s) in
  let entries := sx_list (sx_nth inp 1) in
  let built := map lst (sx_list o2) in
  mon_sets inp obs =
  flag 9 (has_panic obs) ++ flag 6 (c6 entries (lst o0) (map (fun s => sxb (ok_val s)) (sx_list o1))) ++
  flag 10 (built_bad (map sx_nats (sx_list (sx_nth inp 2))) (lst o0) built) ++ flag 11 (c11 built (lst o3) o8 o3) ++
  flag 12 (negb (diff_ok (nth 0 built []) (nth 1 built []) (lst oa) (lst bo) (lst ob))) ++
  flag 13 (c13 entries (lst o0) (lst o3) o5) ++ flag 14 (c14 entries (lst o0) (lst o3) o6) ++ flag 15 (c15 built o7).
Proof. reflexivity. Qed.

Definition enc_entry (d : digest) : sx :=
  L [enc_bytes (d_inst d); of_N (d_fn d); enc_bytes (d_hash d); A (d_size d)].

Lemma sx_Ns_enc b : sx_Ns (enc_bytes b) = b.
Proof. exact (sxb_enc b). Qed.

Lemma dec_entry_enc d : valid_digest d -> dec_entry (enc_entry d) = Ok (pack d).
Proof.
  intro V. unfold dec_entry, enc_entry. cbn [sx_nth sx_list nth sx_Z]. rewrite SxFactsMA.sx_N_of_N, !sx_Ns_enc.
  rewrite (instance_name_accepts_valid_proof _ (vd_inst d V)). cbn [bind].
  destruct (valid_bare d V) as (hb & Hgb & _). unfold get_digest_function. rewrite Hgb. cbn [bind].
  apply new_digest_valid; assumption.
Qed.

Lemma map_outcome_entries ds :
  Forall valid_digest ds -> map_outcome dec_entry (map enc_entry ds) = Ok (map pack ds).
Proof.
  induction 1 as [|d ds V _ IH]; [reflexivity|]. cbn [map map_outcome].
  rewrite (dec_entry_enc d V). cbn [bind]. rewrite IH. reflexivity.
Qed.

Lemma enc_entry_inj d1 d2 : enc_entry d1 = enc_entry d2 -> d1 = d2.
Proof.
  unfold enc_entry. intro H.
  pose proof (f_equal (fun s => sxb (sx_nth s 0)) H) as H1.
  pose proof (f_equal (fun s => sx_N (sx_nth s 1)) H) as H2.
  pose proof (f_equal (fun s => sxb (sx_nth s 2)) H) as H3.
  pose proof (f_equal (fun s => sx_Z (sx_nth s 3)) H) as H4.
  cbv beta in H1, H2, H3, H4. cbn [sx_nth sx_list nth sx_Z] in H1, H2, H3, H4.
  rewrite !sxb_enc in H1, H3. rewrite !SxFactsMA.sx_N_of_N in H2.
  destruct d1, d2. cbn in *. subst. reflexivity.
Qed.

Lemma entry_key_agree di dj :
  valid_digest di -> valid_digest dj ->
  Bool.eqb (beqb (pack di) (pack dj)) (sx_eqb (enc_entry di) (enc_entry dj)) = true.
Proof.
  intros Vi Vj. apply eqb_iff. split; intro H.
  - apply beqb_eq, pack_inj in H; [|assumption|assumption]. rewrite H. apply sx_eqb_refl.
  - apply sx_eqb_eq, enc_entry_inj in H. rewrite H. apply beqb_refl.
Qed.

Lemma entry_key0_agree di dj :
  valid_digest di -> valid_digest dj ->
  Bool.eqb (beqb (key0 di) (key0 dj)) (sx_eqb (m_noinst (enc_entry di)) (m_noinst (enc_entry dj))) = true.
Proof.
  intros Vi Vj. apply eqb_iff. unfold m_noinst, enc_entry. cbn [sx_nth sx_list nth]. split; intro H.
  - apply beqb_eq, (key0_inj di dj Vi Vj) in H. destruct H as (E1 & E2 & E3).
    rewrite E1, E2, E3. apply sx_eqb_refl.
  - apply sx_eqb_eq in H.
    pose proof (f_equal (fun s => sx_N (sx_nth s 0)) H) as H1.
    pose proof (f_equal (fun s => sxb (sx_nth s 1)) H) as H2.
    pose proof (f_equal (fun s => sx_Z (sx_nth s 2)) H) as H3.
    cbv beta in H1, H2, H3. cbn [sx_nth sx_list nth sx_Z] in H1, H2, H3.
    rewrite !SxFactsMA.sx_N_of_N in H1. rewrite !sxb_enc in H2.
    unfold key0. rewrite H1, H2, H3. apply beqb_refl.
Qed.

Lemma Forall_valid ds dl : Forall valid_digest ds -> Forall (fun d => In d ds) dl -> Forall valid_digest dl.
Proof.
  intros V H. apply Forall_forall. intros d Hd. rewrite Forall_forall in V, H. apply V, H, Hd.
Qed.

Section Universe.
  Variable ds : list digest.
  Hypothesis V : Forall valid_digest ds.
  Local Notation entries := (map enc_entry ds).
  Local Notation us := (map pack ds).
  Let d0 : digest := {| d_fn := 0%N; d_hash := []; d_size := 0; d_inst := [] |}.

  Lemma valid_in d : In d ds -> valid_digest d.
  Proof. rewrite Forall_forall in V. apply V. Qed.

  Lemma nth_us i : (i < length ds)%nat -> nth i us [] = pack (nth i ds d0).
  Proof. apply nth_map_lt. Qed.
  Lemma nth_entries i : (i < length ds)%nat -> nth i entries (L []) = enc_entry (nth i ds d0).
  Proof. apply nth_map_lt. Qed.

  Lemma entry_of_pack d : In d ds -> x_entry_of entries us (pack d) = enc_entry d.
  Proof.
    intro Hd. unfold x_entry_of. rewrite map_length.
    destruct (find (fun i => beqb (nth i us []) (pack d)) (seq 0 (length ds))) as [i|] eqn:Ef.
    - apply find_some in Ef. destruct Ef as [Hi Hb]. apply in_seq in Hi. apply beqb_eq in Hb.
      rewrite nth_us in Hb by lia. rewrite nth_entries by lia. f_equal.
      apply pack_inj; [apply valid_in, nth_In; lia|apply valid_in, Hd|exact Hb].
    - exfalso. destruct (In_nth _ _ d0 Hd) as (j & Hj & Ej).
      pose proof (find_none _ _ Ef j) as Hn. cbv beta in Hn.
      rewrite nth_us, Ej, beqb_refl in Hn by exact Hj. specialize (Hn ltac:(apply in_seq; lia)). discriminate.
  Qed.

  Lemma c6_false : c6 entries us (map key0 ds) = false.
  Proof.
    unfold c6. rewrite !map_length, Nat.eqb_refl. cbn [negb orb]. rewrite !orb_false_r.
    apply negb_false_iff, forallb_forall. intros i Hi. apply forallb_forall. intros j Hj.
    apply in_seq in Hi. apply in_seq in Hj.
    rewrite !nth_us, !nth_entries by lia.
    rewrite (nth_map_lt key0 ds i d0 []), (nth_map_lt key0 ds j d0 []) by lia.
    rewrite entry_key_agree, entry_key0_agree by (apply valid_in, nth_In; lia). reflexivity.
  Qed.

  (** lists of members of the universe *)
  Lemma members l : (forall x, In x l -> In x us) ->
    exists dl, l = map pack dl /\ Forall (fun d => In d ds) dl.
  Proof.
    induction l as [|x r IH]; intro H; [exists []; split; [reflexivity|constructor]|].
    destruct IH as (dl & -> & Hdl); [intros y Hy; apply H; right; exact Hy|].
    destruct (proj1 (in_map_iff _ _ _) (H x (or_introl eq_refl))) as (d & <- & Hd).
    exists (d :: dl). split; [reflexivity|constructor; assumption].
  Qed.

  Lemma inst_of_pack d : In d ds -> x_inst_of entries us (pack d) = d_inst d.
  Proof.
    intro Hd. unfold x_inst_of. rewrite (entry_of_pack d Hd). unfold enc_entry. cbn [sx_nth sx_list nth].
    apply sxb_enc.
  Qed.
  Lemma size_of_pack d : In d ds -> x_size_of entries us (pack d) = d_size d.
  Proof.
    intro Hd. unfold x_size_of. rewrite (entry_of_pack d Hd). unfold enc_entry. rewrite sx_nth_L. reflexivity.
  Qed.

  Lemma filter_size_of dl :
    Forall (fun d => In d ds) dl ->
    filter (fun x => negb (x_size_of entries us x =? 0)) (map pack dl)
    = map pack (filter (fun d => negb (d_size d =? 0)) dl).
  Proof.
    intro Hdl. rewrite filter_map_comm. f_equal. apply filter_ext_in. intros d Hd.
    rewrite size_of_pack; [reflexivity|]. rewrite Forall_forall in Hdl. apply Hdl, Hd.
  Qed.

  Lemma c13_false dl :
    Forall (fun d => In d ds) dl ->
    c13 entries us (map pack dl) (enc_out enc_sets (partition_by_instance_name (map pack dl))) = false.
  Proof.
    intro Hdl. pose proof (Forall_valid ds dl V Hdl) as Vdl.
    unfold c13. rewrite (partition_spec_proof dl Vdl). cbn [enc_out]. apply negb_false_iff.
    match goal with |- sx_eqb ?a ?b = true => replace b with a; [apply sx_eqb_refl|] end.
    do 3 f_equal. rewrite map_map.
    assert (E : map (fun x => x_inst_of entries us (pack x)) dl = map d_inst dl).
    { apply map_ext_in. intros d Hd. apply inst_of_pack. rewrite Forall_forall in Hdl. apply Hdl, Hd. }
    rewrite E, first_occ_firsts. f_equal. apply map_ext. intro i.
    rewrite filter_map_comm. f_equal. apply filter_ext_in. intros d Hd.
    rewrite inst_of_pack; [reflexivity|]. rewrite Forall_forall in Hdl. apply Hdl, Hd.
  Qed.

  Lemma c14_false dl :
    Forall (fun d => In d ds) dl -> sorted (map pack dl) ->
    c14 entries us (map pack dl) (enc_out enc_list (remove_empty_blob (map pack dl))) = false.
  Proof.
    intros Hdl Hs. pose proof (Forall_valid ds dl V Hdl) as Vdl.
    unfold c14. destruct (remove_empty_spec_proof dl Vdl Hs) as (r & -> & _ & ->). cbn [enc_out].
    apply negb_false_iff. rewrite (filter_size_of dl Hdl). apply sx_eqb_refl.
  Qed.
End Universe.

Lemma combine_map_map {X Y Z} (f : X -> Y) (g : X -> Z) l :
  combine (map f l) (map g l) = map (fun x => (f x, g x)) l.
Proof. induction l as [|x l IH]; [reflexivity|]. cbn. rewrite IH. reflexivity. Qed.

Lemma sorted_nil : sorted [].
Proof. constructor. Qed.

Lemma diff_ok_spec a b oa bo ob :
  sorted oa -> sorted bo -> sorted ob ->
  (forall x, In x oa <-> In x a /\ ~ In x b) -> (forall x, In x bo <-> In x a /\ In x b) ->
  (forall x, In x ob <-> In x b /\ ~ In x a) -> diff_ok a b oa bo ob = true.
Proof.
  intros S1 S2 S3 M1 M2 M3. unfold diff_ok.
  rewrite (strictly_sorted_of _ S1), (strictly_sorted_of _ S2), (strictly_sorted_of _ S3). cbn [andb].
  rewrite !same_set_intro; [reflexivity| | |]; intro x.
  - rewrite M3, filter_In, not_memb_iff. tauto.
  - rewrite M2, filter_In, memb_In. tauto.
  - rewrite M1, filter_In, not_memb_iff. tauto.
Qed.

Lemma built_bad_false us sets : built_bad (map sx_nats (sx_list sets)) us (built_of us sets) = false.
Proof.
  unfold built_bad, built_of. rewrite !map_length, Nat.eqb_refl. cbn [negb orb]. apply negb_false_iff.
  rewrite combine_map_map. apply forallb_forall. intros p Hp. apply in_map_iff in Hp.
  destruct Hp as (s0 & <- & _). cbn [fst snd].
  destruct (build_spec_proof (map (fun i : nat => nth i us []) (sx_nats s0))) as (B1 & _ & B3).
  rewrite (strictly_sorted_of _ B1). cbn [andb]. apply same_set_intro. exact B3.
Qed.

Lemma built_members ds sets s x :
  Forall (fun s => Forall (fun i => (i < length ds)%nat) (sx_nats s)) (sx_list sets) ->
  In s (map (fun s => build (map (fun i : nat => nth i (map pack ds) []) (sx_nats s))) (sx_list sets)) ->
  In x s -> In x (map pack ds).
Proof.
  intros H Hs Hx. apply in_map_iff in Hs. destruct Hs as (s0 & <- & Hs0).
  apply (proj1 (proj2 (proj2 (build_spec_proof _)) _)) in Hx. apply in_map_iff in Hx. destruct Hx as (i & <- & Hi).
  rewrite Forall_forall in H. specialize (H s0 Hs0). rewrite Forall_forall in H.
  apply nth_In. rewrite map_length. apply H, Hi.
Qed.

Lemma keys_obs ds :
  Forall valid_digest ds ->
  map (fun v => enc_out enc_bytes (get_key v 0)) (map pack ds) = map (fun d => L [A 0; enc_bytes (key0 d)]) ds.
Proof.
  intro V. rewrite map_map. apply map_ext_in. intros d Hd.
  destruct (pack_unpack_accessors d (valid_in ds V d Hd)) as (_ & _ & _ & _ & _ & _ & K & _). rewrite K. reflexivity.
Qed.

Lemma silent_sets inp ds :
  Forall valid_digest ds -> sx_list (sx_nth inp 1) = map enc_entry ds ->
  Forall (fun s => Forall (fun i => (i < length ds)%nat) (sx_nats s)) (sx_list (sx_nth inp 2)) ->
  mon_sets inp (run_sets (sx_nth inp 1) (sx_nth inp 2)) = [].
Proof.
  intros V Hent Hsets. unfold run_sets. rewrite Hent, (map_outcome_entries ds V). cbv zeta.
  set (us := map pack ds).
  set (built := map (fun s : sx => build (map (fun i : nat => nth i us []) (sx_nats s))) (sx_list (sx_nth inp 2))).
  set (u := union built).
  destruct (diff_inter (nth 0 built []) (nth 1 built [])) as [[oa bo] ob] eqn:Edi.
  assert (Hbs : Forall sorted built).
  { apply Forall_forall. intros s Hs. apply in_map_iff in Hs. destruct Hs as (s0 & <- & _). apply build_spec_proof. }
  pose proof (fun s x => built_members ds (sx_nth inp 2) s x Hsets) as Hbm.
  destruct (union_spec_proof built Hbs) as (Hus & _ & Hum). fold u in Hus, Hum.
  destruct (members ds u) as (du & Hdu & Hdl).
  { intros x Hx. apply Hum in Hx. destruct Hx as (s & Hs & Hx). eapply Hbm; eauto. }
  pose proof (Forall_valid ds du V Hdl) as Vdu. clearbody u. subst u.
  (* the partition joins back to the set *)
  assert (Hpart : exists ps, partition_by_instance_name (map pack du) = Ok ps /\ union ps = map pack du).
  { rewrite (partition_spec_proof du Vdu). eexists. split; [reflexivity|].
    set (ps := map _ (firsts beqb (map d_inst du))).
    assert (Hps : Forall sorted ps).
    { apply Forall_forall. intros p Hp. apply in_map_iff in Hp. destruct Hp as (i & <- & _).
      apply sorted_map_filter, Hus. }
    destruct (union_spec_proof ps Hps) as (Hs & _ & Hm).
    apply sorted_ext; [exact Hs|exact Hus|].
    intro x. rewrite Hm. split.
    - intros (p & Hp & Hx). apply in_map_iff in Hp. destruct Hp as (i & <- & _).
      apply in_map_iff in Hx. destruct Hx as (d & <- & Hd). apply filter_In in Hd. apply in_map. tauto.
    - intro Hx. apply in_map_iff in Hx. destruct Hx as (d & <- & Hd).
      exists (map pack (filter (fun d' => beqb (d_inst d') (d_inst d)) du)). split.
      + apply in_map_iff. exists (d_inst d). split; [reflexivity|].
        apply (firsts_In beqb beqb_eq), in_map, Hd.
      + apply in_map, filter_In. split; [exact Hd|apply beqb_refl]. }
  destruct Hpart as (ps & Hps & Hups).
  rewrite mon_sets_obs. cbv zeta. cbn [sx_list]. rewrite Hent, !dec_enc_list, dec_enc_sets.
  (* keys without instance name *)
  pose proof (keys_obs ds V) as Hk. fold us in Hk. rewrite Hk, map_map. cbn [ok_val].
  rewrite (map_ext _ key0 (fun d => sxb_enc (key0 d))), (c6_false ds V : c6 _ us _ = false).
  (* Build *)
  rewrite (built_bad_false us (sx_nth inp 2) : built_bad _ us built = false).
  (* PartitionByInstanceName, RemoveEmptyBlob *)
  rewrite (c13_false ds V du Hdl : c13 _ us _ _ = false), (c14_false ds V du Hdl Hus : c14 _ us _ _ = false).
  (* GetUnion, and the union of the partition *)
  assert (H11 : c11 built (map pack du) (enc_list (union ps)) (enc_list (map pack du)) = false).
  { unfold c11. rewrite Hups, sx_eqb_refl, (strictly_sorted_of _ Hus). cbn [andb negb orb].
    rewrite orb_false_r. apply negb_false_iff, same_set_intro. intro x. rewrite Hum, in_concat. reflexivity. }
  rewrite Hps, H11.
  (* GetDifferenceAndIntersection *)
  assert (Hn : forall i, sorted (nth i built [])).
  { intro i. destruct (Nat.lt_ge_cases i (length built)) as [Hl|Hl].
    - rewrite Forall_forall in Hbs. apply Hbs, nth_In, Hl.
    - rewrite nth_overflow by exact Hl. apply sorted_nil. }
  assert (H12 : diff_ok (nth 0 built []) (nth 1 built []) oa bo ob = true).
  { pose proof (diff_inter_spec_proof _ _ (Hn 0%nat) (Hn 1%nat)) as D. rewrite Edi in D.
    destruct D as ((S1 & S2 & S3) & M1 & M2 & M3). apply diff_ok_spec; assumption. }
  rewrite H12.
  assert (H15 : c15 built (L (map (fun s => of_option enc_bytes (first s)) built)) = false).
  { unfold c15. apply negb_false_iff. apply sx_eqb_refl. }
  rewrite H15.
  (* no panic marker *)
  match goal with |- flag 9 ?b ++ _ = [] => assert (Hb : b = false); [|rewrite Hb; reflexivity] end.
  destruct (remove_empty_spec_proof du Vdu Hus) as (r & Hr & _).
  rewrite Hr. cbn [enc_out]. autorewrite with hp.
  rewrite !has_panic_A by discriminate.
  rewrite (has_panic_map (fun d => L [A 0; enc_bytes (key0 d)]) ds).
  2:{ intros d _. autorewrite with hp. reflexivity. }
  rewrite (has_panic_map (fun s => of_option enc_bytes (first s)) built).
  2:{ intros s _. destruct (first s) as [x|]; cbn [of_option]; [|reflexivity].
      autorewrite with hp. reflexivity. }
  reflexivity.
Qed.

(** The universe of a set case is a list of canonically written valid digests,
    and the sets are lists of indices into it. *)
Definition universe_ok (inp : sx) : Prop :=
  exists ds, Forall valid_digest ds /\ sx_list (sx_nth inp 1) = map enc_entry ds
    /\ Forall (fun s => Forall (fun i => (i < length ds)%nat) (sx_nats s)) (sx_list (sx_nth inp 2)).

Definition inp_wf20 (inp : sx) : Prop :=
  (sx_Z (sx_nth inp 0) = 3 -> sx_Z (sx_nth inp 4) < 2 ^ 63)
  /\ (sx_Z (sx_nth inp 0) = 6 -> universe_ok inp).

Theorem mon20_silent_on_model inp : inp_wf20 inp -> mon20 inp (run20 inp) = [].
Proof.
  intros [H3 H6]. unfold mon20, run20.
  destruct (sx_Z (sx_nth inp 0)) as [|p|p] eqn:E; [apply silent_read_path| |reflexivity].
  do 3 (try destruct p as [p|p|]); try reflexivity;
    match type of E with
    | _ = 6 => destruct (H6 eq_refl) as (ds & V & Hent & Hs); eapply silent_sets; eauto
    | _ = 4 => apply silent_compact
    | _ = 2 => apply silent_instance_name
    | _ = 3 => apply silent_structured; apply H3; reflexivity
    | _ = 1 => apply silent_write_path
    end.
Qed.

(** * Every hypothesis is needed: the monitor fires on the model without it *)
Definition ex_md5hex : sx :=
  L (map A [56; 98; 49; 97; 57; 57; 53; 51; 99; 52; 54; 49; 49; 50; 57; 54; 97; 56; 50; 55; 97; 98; 102; 56; 99; 52; 55; 56; 48; 52; 100; 55]).
Definition ex_uuid : sx := L (map A [1; 2; 3; 4; 5; 6; 7; 8; 9; 10; 11; 12; 13; 14; 15; 16]).
Definition ex_structured (size : Z) : sx := L [A 3; L [A 97]; A 3; ex_md5hex; A size; A 0; ex_uuid].
Definition ex_entry (inst : sx) (fn size : Z) : sx := L [inst; A fn; ex_md5hex; A size].
Definition ex_sets (u s : sx) : sx := L [A 6; u; s].

(** a structured digest whose size is 2^63 (not an int64): accepted by the
    model's constructor (which only rejects negative sizes), degenerate for the monitor *)
Example size_bound_needed :
  mon20 (ex_structured (2 ^ 63)) (run20 (ex_structured (2 ^ 63))) = [8; 1; 2; 3; 4; 5].
Proof.
  (* every getter parses the packed string again, and the checker evaluates [wrap64] slowly:
     [unpack] is evaluated once and the getters are rewritten with its result *)
  set (v := pack_raw 3 (sxb ex_md5hex) (2 ^ 63) [97%N]).
  assert (U : unpack v = Ok {| u_fn := 3; u_hs := 2; u_he := 34; u_size := - 2 ^ 63; u_se := 54 |})
    by (vm_compute; reflexivity).
  change (run20 (ex_structured (2 ^ 63))) with (run_structured [97%N] 3 (sxb ex_md5hex) (2 ^ 63) 0 (sxb ex_uuid)).
  unfold run_structured.
  change (new_instance_name [97%N]) with (Ok [97%N]). change (get_digest_function 3 _) with (Ok (3%N, 16%N)).
  cbv beta iota. change (new_digest _ _ _ (2 ^ 63)) with (Ok v). cbv beta iota zeta.
  unfold enc_dobs, get_read_path, get_write_path, get_proto, get_compact_binary, get_function_enum, get_hash_bytes,
    get_hash_string, get_size_bytes, get_instance_name, get_key, get_parents.
  rewrite !U. vm_compute. reflexivity.
Qed.

(** two universe entries that differ only in how a byte is written (-5 decodes to 0) *)
Example canonical_entries_needed :
  let i := ex_sets (L [ex_entry (L [A 0]) 3 5; ex_entry (L [A (-5)]) 3 5]) (L []) in
  mon20 i (run20 i) = [6].
Proof. vm_compute. reflexivity. Qed.

(** a universe entry that is not a digest (digest function 99) *)
Example valid_entries_needed :
  let i := ex_sets (L [ex_entry (L [A 97]) 99 5]) (L []) in mon20 i (run20 i) = [6; 13; 14].
Proof. vm_compute. reflexivity. Qed.

(** a universe entry of size 2^64 (the accessor's int64 arithmetic wraps it to 0) *)
Example entry_size_needed :
  let i := ex_sets (L [ex_entry (L [A 97]) 3 (2 ^ 64)]) (L [L [A 0]]) in mon20 i (run20 i) = [14].
Proof. vm_compute. reflexivity. Qed.

(** a set member that is not an index into the universe *)
Example set_index_needed :
  let i := ex_sets (L [ex_entry (L [A 97]) 3 5]) (L [L [A 5]]) in mon20 i (run20 i) = [9; 11; 13; 14].
Proof. vm_compute. reflexivity. Qed.

(** Non-vacuity: a set case inside the domain (two digests with different instance
    names, the second an empty blob; two overlapping sets). *)
Definition ex_sets_ok : sx :=
  ex_sets (L [ex_entry (L [A 97]) 3 5; ex_entry (L [A 98]) 3 0]) (L [L [A 0; A 1]; L [A 1]]).

Example ex_sets_ok_wf : inp_wf20 ex_sets_ok.
Proof.
  split; [intro H; vm_compute in H; discriminate|]. intros _.
  assert (Hv : forall inst size, (inst = [97%N] \/ inst = [98%N]) -> 0 <= size < 2 ^ 63 ->
             valid_digest {| d_fn := 3%N; d_hash := sxb ex_md5hex; d_size := size; d_inst := inst |}).
  { intros inst size Hi Hs. constructor; cbn [d_fn d_hash d_size d_inst].
    - vm_compute. tauto.
    - exists 16%N. split; reflexivity.
    - reflexivity.
    - exact Hs.
    - exists [inst]. split; [reflexivity|]. constructor; [|constructor].
      destruct Hi as [-> | ->]; apply valid_component_intro; reflexivity. }
  exists [ {| d_fn := 3%N; d_hash := sxb ex_md5hex; d_size := 5; d_inst := [97%N] |};
           {| d_fn := 3%N; d_hash := sxb ex_md5hex; d_size := 0; d_inst := [98%N] |} ].
  split; [|split].
  - constructor; [apply Hv; [auto|lia]|constructor; [apply Hv; [auto|lia]|constructor]].
  - reflexivity.
  - repeat constructor.
Qed.

Example ex_sets_ok_silent : mon20 ex_sets_ok (run20 ex_sets_ok) = [].
Proof. apply mon20_silent_on_model, ex_sets_ok_wf. Qed.
