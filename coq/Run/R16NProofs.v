(** C16N — the monitor on the model's own observation.  [mon16N inp (run16N inp)]
    contains no clause other than 2 (clause 2, "the outermost handler's error
    is the consumer's result", is the subject of Buffer/EHNestMoreRoot.v and
    Buffer/EHNestTooLong.v) for every input of
    [dom16N]: every plain buffer of the tree carries the object, readers that
    attach EOF to data have clean scripts, the buffer handed to the consumer is
    wrapped, the model run did not offer its out-of-fuel marker to a handler,
    final error codes are positive, the observed tree is within the decoder's
    depth bound. *)
From Coq Require Import List ZArith NArith Bool Lia.
From BBS Require Import Common.Sx Buffer.Source Buffer.Validate Buffer.Convert Buffer.StreamProofs
  Buffer.ConvertProofs Buffer.C09FullMonitor Buffer.EHFullCarry Buffer.EHFullExact Buffer.EHFullPrefix
  Buffer.EHFullMonS Buffer.EHNest Buffer.EHNestCarry Buffer.EHNestRules Run.R09 Run.R16 Run.R16N.
Import ListNotations.
Open Scope Z_scope.

Section OtreeInd.
  Variable P : otree -> Prop.
  Hypothesis Hleaf : forall n, P (OLeaf n).
  Hypothesis Hnode : forall offs d kids, Forall P kids -> P (ONode offs d kids).
  Fixpoint otree_ind2 (o : otree) : P o :=
    match o with
    | OLeaf n => Hleaf n
    | ONode offs d kids =>
        Hnode offs d kids
          ((fix go (l : list otree) : Forall P l :=
              match l with
              | [] => Forall_nil P
              | x :: r => Forall_cons x (otree_ind2 x) (go r)
              end) kids)
    end.
End OtreeInd.

Fixpoint odepth (o : otree) : nat :=
  match o with
  | OLeaf _ => 1%nat
  | ONode _ _ kids => S (fold_right (fun k n => Nat.max (odepth k) n) 0%nat kids)
  end.

Lemma code_of_eq e : R16.code_of e = sx_Z (enc_err e).
Proof. destruct e; reflexivity. Qed.

Section DecEnc.
  Variable od : otree -> nat.
  Hypothesis od_leaf : forall k, od (OLeaf k) = 0%nat -> k = 0%nat.
  Hypothesis od_node : forall offs d kids,
    od (ONode offs d kids) = S (fold_right (fun k n => Nat.max (od k) n) 0%nat kids).

  Lemma dec_enc_otree : forall o n, (od o <= n)%nat -> dec_ctree n (enc_otree o) = codes_of o.
  Proof.
    induction o as [k|offs d kids IH] using otree_ind2; intros n Hn.
    - destruct n as [|n]; [|reflexivity].
      (* out of fuel [dec_ctree] answers [TLeaf 0]: right for a leaf observed with 0 closes *)
      rewrite (od_leaf k) by lia. reflexivity.
    - rewrite od_node in Hn. destruct n as [|n]; [lia|]. cbn [enc_otree dec_ctree codes_of]. unfold of_nat. cbn iota.
      f_equal.
      + unfold sx_Zs. cbn [sx_list]. rewrite map_map. apply map_ext. intros e. symmetry. apply code_of_eq.
      + apply le_S_n in Hn. rewrite map_map.
        induction kids as [|k kids IHk]; [reflexivity|]. cbn [map fold_right] in *.
        inversion IH as [|x l Hx Hl]; subst. f_equal.
        * apply Hx. lia.
        * apply IHk; [exact Hl|lia].
  Qed.
End DecEnc.

Lemma dec_enc_odepth o n : (odepth o <= n)%nat -> dec_ctree n (enc_otree o) = codes_of o.
Proof. apply dec_enc_otree; [discriminate|reflexivity]. Qed.

Lemma t_done1_codes : forall o, t_done1 (codes_of o) = od1 o.
Proof.
  induction o as [k|offs d kids IH] using otree_ind2; [reflexivity|].
  cbn [codes_of t_done1 od1]. f_equal.
  - destruct d as [|[|d]]; try reflexivity. cbn [Nat.eqb]. apply Z.eqb_neq. lia.
  - induction kids as [|k kids IHk]; [reflexivity|].
    inversion IH as [|x l Hx Hl]; subst. cbn [map forallb]. rewrite Hx, (IHk Hl). reflexivity.
Qed.

Fixpoint nofuel (o : ctree) : bool :=
  match o with
  | TLeaf _ => true
  | TNode offs _ kids => forallb (fun e => negb (e =? -3)) offs && forallb nofuel kids
  end.

Lemma fin_no_ex s t o e : e <> -3 -> fin exf s t o e = fin no_ex s t o e.
Proof. intros Hne. unfold fin, exf, no_ex. apply Z.eqb_neq in Hne. rewrite Hne. reflexivity. Qed.

Lemma chk_walk_no_ex s :
  (forall t o, chk exf s t o = true -> nofuel o = true -> chk no_ex s t o = true) /\
  (forall ans fe fe' offers kids,
     forallb (fun e => negb (e =? -3)) offers = true -> forallb nofuel kids = true ->
     (forall e, e <> -3 -> fe e = fe' e) ->
     walk exf s ans fe offers kids = true -> walk no_ex s ans fe' offers kids = true).
Proof.
  apply nbuf_nanss_ind.
  - intros b o Hc _. destruct o; [reflexivity|discriminate].
  - intros inner IHi ans IHa o Hc Hn. destruct o as [|offers d kids]; [discriminate|].
    destruct kids as [|o0 kids]; [discriminate|]. cbn [chk] in *. cbn [nofuel forallb] in Hn.
    apply andb_true_iff in Hc as (Hc1 & Hc2).
    apply andb_true_iff in Hn as (Hn1 & Hn2). apply andb_true_iff in Hn2 as (Hn2 & Hn3).
    rewrite (IHi _ Hc1 Hn2). cbn [andb].
    eapply IHa; [exact Hn1|exact Hn3| |exact Hc2]. intros e He. apply fin_no_ex. exact He.
  - intros fe fe' offers kids Ho Hk Hfe Hw. destruct offers as [|e offers]; [exact Hw|].
    cbn [walk forallb] in *. apply andb_true_iff in Ho as (He & Ho).
    apply negb_true_iff, Z.eqb_neq in He.
    apply andb_true_iff in Hw as (Hw1 & Hw2). rewrite <- (Hfe _ He), Hw1. cbn [andb].
    apply andb_true_iff in Hw2 as (Hw2 & Hw3). rewrite Hw3, andb_true_r.
    rewrite forallb_forall in Ho, Hw2 |- *. intros x Hx. rewrite <- Hfe; [exact (Hw2 x Hx)|].
    specialize (Ho x Hx). apply negb_true_iff, Z.eqb_neq in Ho. exact Ho.
  - intros t' IHt rest IHr fe fe' offers kids Ho Hk Hfe Hw. destruct offers as [|e offers]; [exact Hw|].
    cbn [walk forallb] in *. apply andb_true_iff in Ho as (He & Ho).
    apply negb_true_iff, Z.eqb_neq in He.
    apply andb_true_iff in Hw as (Hw1 & Hw2). rewrite <- (Hfe _ He), Hw1. cbn [andb].
    destruct kids as [|o' kids]; [discriminate|]. cbn [forallb] in Hk.
    apply andb_true_iff in Hk as (Hk1 & Hk2).
    apply andb_true_iff in Hw2 as (Hw2 & Hw3).
    rewrite (IHt _ Hw2 Hk1). cbn [andb].
    eapply IHr; [exact Ho|exact Hk2| |exact Hw3]. intros x Hx. apply fin_no_ex. exact Hx.
  - intros c rest IHr fe fe' offers kids Ho Hk Hfe Hw. destruct offers as [|e offers]; [exact Hw|].
    cbn [walk forallb] in *. apply andb_true_iff in Ho as (He & Ho).
    apply negb_true_iff, Z.eqb_neq in He.
    apply andb_true_iff in Hw as (Hw1 & Hw2). rewrite <- (Hfe _ He), Hw1. cbn [andb].
    eapply IHr; eauto.
Qed.

Lemma ccarb_ccar C evs : ccarb C evs = true -> ccar C evs.
Proof.
  unfold ccarb, ccar. destruct (content evs) as [c t]. cbn [fst snd]. intros Hc.
  apply andb_true_iff in Hc as (Hp & Ht). destruct (bytes_prefix_true _ _ Hp) as (rest & ->).
  exists rest. split; [reflexivity|]. intros ->. cbn in Ht. apply N.eqb_eq in Ht.
  rewrite lenN_app in Ht. apply lenN_zero. lia.
Qed.
Lemma cleanb_clean evs : cleanb evs = true -> clean_script evs.
Proof.
  induction evs as [|[bs|c|] r IH]; cbn; auto; try discriminate.
  destruct r; [reflexivity|discriminate].
Qed.

Lemma leaf_ok_carries C b : leaf_ok C b = true -> carries_full C b /\ wf_buf b.
Proof.
  destruct b as [evs|evs a|d|x]; cbn [leaf_ok carries_full wf_buf]; intros Hl.
  - split; [apply ccarb_ccar; exact Hl|exact I].
  - apply andb_true_iff in Hl as (Hc & Ha). apply ccarb_ccar in Hc. destruct a; cbn in Ha.
    + apply cleanb_clean in Ha. split; [apply clean_ccar_rcar; assumption|exact Ha].
    + split; [exact Hc|exact I].
  - split; [apply bytes_eqb_eq; exact Hl|exact I].
  - split; exact I.
Qed.

Lemma tree_ok_carries C :
  (forall t, tree_ok C t = true -> tcarry C t /\ twf t) /\
  (forall a, ans_ok C a = true -> acarry C a /\ awf a).
Proof.
  apply nbuf_nanss_ind; cbn [tree_ok ans_ok tcarry acarry twf awf].
  - intros b Hl. apply leaf_ok_carries. exact Hl.
  - intros inner IHi ans IHa Ht. apply andb_true_iff in Ht as (A & B).
    destruct (IHi A), (IHa B). tauto.
  - auto.
  - intros b IHb r IHr Ht. apply andb_true_iff in Ht as (A & B).
    destruct (IHb A), (IHr B). tauto.
  - intros c r IHr Ht. apply IHr. exact Ht.
Qed.

Lemma if_false_nil (b : bool) (k : Z) : b = false -> (if b then [k] else []) = [].
Proof. intros ->. reflexivity. Qed.

Section Core.
  Variable H : bytes -> bytes.
  Variable cfg : vcfg.
  Variable fuel : nat.

  Theorem monN_data_on_model t m C :
    tree_ok C t = true -> (match t with NW _ _ => True | NB _ => False end) ->
    nofuel (codes_of (z_tree (run_tree H cfg fuel t m))) = true ->
    (forall x, z_err (run_tree H cfg fuel t m) = ECode x -> 0 < x) ->
    forall c, In c (monN_data t m C (z_data (run_tree H cfg fuel t m))
                              (C09FullMonitor.code_of (z_err (run_tree H cfg fuel t m)))
                              (codes_of (z_tree (run_tree H cfg fuel t m)))) -> c = 2.
  Proof.
    intros Hok Hroot Hnf Hpos c.
    destruct (proj1 (tree_ok_carries C) _ Hok) as (Hcar & Hwf).
    pose proof (run_tree_rules H cfg fuel t m Hwf) as (Hchk & Hdone).
    pose proof (fun Hm => run_tree_no_dup_no_skip H cfg fuel C t m Hcar Hm) as Hnodup.
    assert (Hpre : streaming m -> exists rest, expected_slice m C = z_data (run_tree H cfg fuel t m) ++ rest).
    { intros Hst. destruct t as [b|inner ans]; [contradiction|]. apply run_tree_delivered_prefix; assumption. }
    remember (run_tree H cfg fuel t m) as out eqn:Eout. clear Eout.
    unfold monN_data. rewrite t_done1_codes, Hdone, Hok. cbn [app andb].
    destruct (is_discard m) eqn:Hdis; [intros []|].
    assert (Hm : m <> MDiscard) by (intros E; rewrite E in Hdis; discriminate).
    rewrite (if_false_nil _ 7), (if_false_nil _ 4), (if_false_nil _ 3), !app_nil_r.
    - destruct t as [b|inner ans]; [intros []|].
      destruct (codes_of (z_tree out)) as [|offs d kids]; [intros []|].
      destruct (returnedN ans (length offs)) as [c'|]; [|intros []].
      destruct (wrapped_ok (NW inner ans) && negb (C09FullMonitor.code_of (z_err out) =? c')); [|intros []].
      intros [<-|[]]. reflexivity.
    - destruct (wrapped_ok t); [|reflexivity]. cbn [andb].
      rewrite (completes_completed _ _ Hpos).
      destruct (completed m (z_err out)) eqn:Hc; [|reflexivity]. cbn [andb].
      rewrite expected_eq, (Hnodup Hm eq_refl), bytes_eqb_refl. reflexivity.
    - rewrite (proj1 (chk_walk_no_ex _) _ _ Hchk Hnf). apply andb_false_r.
    - destruct (wrapped_ok t); [|reflexivity]. cbn [andb].
      destruct (streamingb m) eqn:Hs; [|reflexivity]. cbn [andb].
      assert (Hst : streaming m) by (destruct m; try discriminate; exact I).
      destruct (Hpre Hst) as (rest & Hr). rewrite expected_eq, Hr, bytes_prefix_app. reflexivity.
  Qed.
End Core.

Definition dom16N (inp : sx) : Prop :=
  let c := dec_case16N inp in
  tree_ok (n_obj c) (n_tree c) = true /\
  (match n_tree c with NW _ _ => True | NB _ => False end) /\
  nofuel (codes_of (z_tree (out16N inp))) = true /\
  (forall x, z_err (out16N inp) = ECode x -> 0 < x) /\
  (odepth (z_tree (out16N inp)) <= tree_depth_bound)%nat.

Lemma sx_nth_enc_outN r o :
  sx_nth (enc_outN r o) 0 = of_Ns (z_data o) /\ sx_nth (enc_outN r o) 1 = enc_err (z_err o) /\
  sx_nth (enc_outN r o) 5 = enc_otree (z_tree o).
Proof. repeat split. Qed.

Lemma mon16N_decoded inp :
  dec_ctree tree_depth_bound (enc_otree (z_tree (out16N inp))) = codes_of (z_tree (out16N inp)) ->
  mon16N inp (run16N inp) =
  monN_data (n_tree (dec_case16N inp)) (n_meth (dec_case16N inp)) (n_obj (dec_case16N inp))
            (z_data (out16N inp)) (C09FullMonitor.code_of (z_err (out16N inp))) (codes_of (z_tree (out16N inp))).
Proof.
  intros Hdec. unfold mon16N, run16N.
  destruct (sx_nth_enc_outN (n_report (dec_case16N inp)) (out16N inp)) as (E0 & E1 & E5).
  rewrite E0, E1, E5, dec_bytes_of_Ns, Hdec. unfold C09FullMonitor.code_of. reflexivity.
Qed.

Lemma monN_data_on_model' H cfg fuel t m C out :
  out = run_tree H cfg fuel t m ->
  tree_ok C t = true -> (match t with NW _ _ => True | NB _ => False end) ->
  nofuel (codes_of (z_tree out)) = true ->
  (forall x, z_err out = ECode x -> 0 < x) ->
  forall c, In c (monN_data t m C (z_data out) (C09FullMonitor.code_of (z_err out)) (codes_of (z_tree out))) -> c = 2.
Proof. intros ->. apply monN_data_on_model. Qed.

Lemma out16N_eq inp :
  out16N inp = run_tree (lookup (n_tbl (dec_case16N inp))) (n_cfg (dec_case16N inp))
                        (16 + tree_fuel (n_tree (dec_case16N inp))) (n_tree (dec_case16N inp))
                        (n_meth (dec_case16N inp)).
Proof. unfold out16N. reflexivity. Qed.

Theorem mon16N_on_model inp : dom16N inp -> forall c, In c (mon16N inp (run16N inp)) -> c = 2.
Proof.
  intros (Hok & Hroot & Hnf & Hpos & Hdepth) c Hin.
  rewrite (mon16N_decoded inp (dec_enc_odepth _ _ Hdepth)) in Hin.
  exact (monN_data_on_model' _ _ _ _ _ _ _ (out16N_eq inp) Hok Hroot Hnf Hpos c Hin).
Qed.
