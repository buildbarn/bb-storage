(** C17: the monitors of Run/R17.v and Run/R17Conc.v are silent on the model.

    [mon17 inp obs] is the property as a decidable check on what the
    implementation was observed to do; [agree17 inp obs] is the judge's own
    "agrees with the model" bit ([judge17]).

    Sequential kinds (0 composites, 1 existence cache, 3 LRU set): the model is
    deterministic, the judge accepts exactly [run17 inp], and every clause is
    silent on it - for EVERY input, without any well-formedness hypothesis
    (decoders clamp, and the monitors only use decoded values and values the
    model encoded itself).

    Concurrent kind (2, replicator decorators): the judge accepts a SET of
    observations (all schedules of the lock-protected sections between two
    quiescent points).  For every accepted observation the clauses 21/22/23
    (more concurrent copies than allowed) are silent.  The clauses 24/25
    (unjustified success) read the harness's event log, obs[4], which the
    judge's agreement test never looks at; "agreement => silent" is FALSE for
    them (witness [conc_success_clauses_not_determined_by_agreement]).  The
    model's counterpart of that log is [tlog] of Compose/EventLog.v, and on it
    they are silent: [mon17_silent_on_accepted_with_model_log] in
    Run/R17LogMon.v. *)
From Coq Require Import List ZArith NArith Bool Arith Lia.
From BBS Require Import Common.Sx Common.ListX
  Compose.Caching Compose.CachingProofs Compose.MonSilentCaching
  Compose.ExistenceCache Compose.ExistenceCacheProofs
  Compose.Replicators Compose.ReplicatorsProofs Compose.MonSilentRepl
  Run.MonSilentSx Run.R17Conc Run.R17.
Import ListNotations.
Open Scope Z_scope.

Definition mon17 (inp obs : sx) : list Z :=
  match sx_Z (sx_nth inp 0) with
  | 0 => mon_seq inp obs
  | 1 => mon_ec inp obs
  | 2 => mon_conc inp obs
  | 3 => mon_lru inp obs
  | _ => []
  end.

(** The model's output for the deterministic kinds.  Kind 2 has no single
    model output (the judge follows a set of states); [L []] is a placeholder
    and the theorem about kind 2 is [conc_counts_silent_on_agreeing] below. *)
Definition run17 (inp : sx) : sx :=
  match sx_Z (sx_nth inp 0) with
  | 0 => run_seq inp
  | 1 => run_ec inp
  | 3 => run_lru inp
  | _ => L []
  end.

(** The judge's own agreement bit. *)
Definition agree17 (inp obs : sx) : bool := sx_bool (sx_nth (judge17 inp obs) 0).

Lemma agree_verdict a v m d : sx_bool (sx_nth (verdict a v m d) 0) = a.
Proof. destruct a; reflexivity. Qed.

Lemma list_eqb_refl l : list_eqb l l = true.
Proof. apply sx_eqb_refl. Qed.


Lemma unfaulted_rev l : unfaulted (rev l) = unfaulted l.
Proof.
  unfold unfaulted. induction l as [|c l IH]; [reflexivity|].
  cbn [rev forallb]. rewrite forallb_app, IH. cbn [forallb]. rewrite andb_true_r. apply andb_comm.
Qed.

Lemma obs_faulted_enc x0 x1 l x3 x4 x5 :
  obs_faulted (L [x0; x1; L (map enc_call l); x3; x4; x5]) = negb (unfaulted l).
Proof.
  unfold obs_faulted. rewrite sx_nth_L. cbn [nth sx_list]. unfold unfaulted.
  induction l as [|c l IH]; [reflexivity|]. cbn [map existsb forallb]. rewrite IH, negb_andb. reflexivity.
Qed.

Lemma hard_rev l : hard (rev l) = hard l.
Proof.
  unfold hard. induction l as [|c l IH]; [reflexivity|].
  cbn [rev existsb]. rewrite existsb_app, IH. cbn [existsb]. rewrite orb_false_r. apply orb_comm.
Qed.

Lemma obs_hard_enc x0 x1 l x3 x4 x5 :
  obs_hard (L [x0; x1; L (map enc_call l); x3; x4; x5]) = hard l.
Proof.
  unfold obs_hard. rewrite sx_nth_L. cbn [nth sx_list]. unfold hard.
  induction l as [|c l IH]; [reflexivity|]. cbn [map existsb]. rewrite IH. reflexivity.
Qed.

Lemma sensible_cases r : sensible r = true -> copying r = true \/ r = RNoop.
Proof.
  unfold sensible. intros H. apply orb_prop in H. destruct H as [H|H]; [left; exact H|].
  destruct r; try discriminate. right. reflexivity.
Qed.

Lemma read_clauses (f : repl -> nat -> st -> Z * st) r d a b fs c s1 :
  f r d (mkst a b fs []) = (c, s1) ->
  (forall s s1, f r d s = (0, s1) -> memb d (sa s) = true \/ memb d (sb s) = true) ->
  (forall s c s1, copying r = true \/ r = RNoop -> f r d s = (c, s1) -> unfaulted (lg s1) = true ->
     c = if memb d (sa s) || memb d (sb s) then 0 else 5) ->
  (forall s s1, copying r = true -> f r d s = (0, s1) -> memb d (sa s1) = true) ->
  (forall s c s1, f r d s = (c, s1) -> exists l, lg s1 = l ++ lg s /\ (hard l = true -> c <> 0)) ->
  (c =? 0) && negb (memb d a || memb d b) = false
  /\ sensible r && negb (negb (unfaulted (lg s1))) && (if memb d a || memb d b then negb (c =? 0) else negb (c =? 5)) = false
  /\ (c =? 0) && copying r && negb (memb d (sa s1)) = false
  /\ (c =? 0) && hard (lg s1) = false.
Proof.
  intros G Sound Compl Pop Hard. split; [|split; [|split]].
  - destruct (c =? 0) eqn:Ec; [|reflexivity]. apply Z.eqb_eq in Ec. subst c.
    destruct (Sound _ _ G) as [H|H]; cbn [sa sb] in H; rewrite H; cbn; [reflexivity|].
    rewrite orb_true_r. reflexivity.
  - destruct (sensible r) eqn:S; [|reflexivity]. rewrite negb_involutive.
    destruct (unfaulted (lg s1)) eqn:U; [|reflexivity]. cbn [andb].
    pose proof (Compl _ c s1 (sensible_cases r S) G U) as Hc. cbn [sa sb] in Hc.
    rewrite Hc. destruct (memb d a || memb d b); reflexivity.
  - destruct (c =? 0) eqn:Ec; [|reflexivity]. apply Z.eqb_eq in Ec. subst c.
    destruct (copying r) eqn:Hc; [|reflexivity]. rewrite (Pop _ s1 eq_refl G). reflexivity.
  - destruct (c =? 0) eqn:Ec; [|reflexivity]. apply Z.eqb_eq in Ec. cbn [andb].
    destruct (hard (lg s1)) eqn:Hh; [|reflexivity]. exfalso.
    destruct (Hard _ _ _ G) as (l & Hl & Hs). cbn [lg] in Hl. rewrite app_nil_r in Hl.
    subst l. apply (Hs Hh Ec).
Qed.

Lemma seq_step_silent k r o fs a b :
  let '(res, s1) := exec_op k r o (mkst a b fs []) in
  forall px, mon_seq_step k r o a b (enc_obs (mkobs res (rev (lg s1)) (sa s1) (sb s1) px)) = [].
Proof.
  destruct (exec_op k r o (mkst a b fs [])) as [res s1] eqn:E. intros px.
  unfold mon_seq_step, enc_obs. cbv zeta. cbn [o_res o_calls o_a o_b o_pfx].
  rewrite obs_faulted_enc, unfaulted_rev, obs_hard_enc, hard_rev. rewrite !sx_nth_L.
  cbn [nth sx_Z sx_list]. rewrite !sx_nats_of_nats.
  destruct o as [d|d|ds|d]; cbn [exec_op] in E.
  -
    destruct (cget r d (mkst a b fs [])) as [c s1'] eqn:G. inversion E; subst res s1'; clear E. cbn [fst snd].
    destruct (read_clauses cget r d a b fs c s1 G (cget_sound r d) (cget_complete_unfaulted r d)
                (cget_populates r d) (cget_hard_fault_surfaces r d)) as (C1 & C2 & C5 & C15).
    rewrite C1, C2, C5, C15. reflexivity.
  -
    destruct (cput k d (mkst a b fs [])) as [c s1'] eqn:P. inversion E; subst res s1'; clear E. cbn [fst snd].
    destruct (cput_only_target _ _ _ _ _ P) as ((f & Hl) & Ho & Hc). cbn [lg] in Hl. rewrite Hl. cbn [rev app map forallb].
    assert (C3 : negb ((sx_Z (sx_nth (enc_call (mkcall (put_target k) CPut [d] f)) 0) =? match put_target k with BA => 0 | BB => 1 end)
                       && (sx_Z (sx_nth (enc_call (mkcall (put_target k) CPut [d] f)) 1) =? 1) && true)
                 || negb (match put_target k with BA => list_eqb b (sb s1) | BB => list_eqb a (sa s1) end) = false).
    { destruct k; cbn [put_target] in *.
      - pose proof (Ho BA ltac:(discriminate)) as X. cbn [contents sa] in X. rewrite X, list_eqb_refl. reflexivity.
      - pose proof (Ho BB ltac:(discriminate)) as X. cbn [contents sb] in X. rewrite X, list_eqb_refl. reflexivity. }
    assert (C4 : (c =? 0) && negb (memb d (match put_target k with BA => sa s1 | BB => sb s1 end)) = false).
    { destruct (c =? 0) eqn:Ec; [|reflexivity]. apply Z.eqb_eq in Ec. specialize (Hc Ec).
      destruct k; cbn [put_target contents] in *; rewrite Hc; reflexivity. }
    rewrite C3, C4. reflexivity.
  -
    destruct k; [reflexivity|].
    destruct (cfm ReadFallback r (dedup_sort ds) (mkst a b fs [])) as [[c m] s1'] eqn:F.
    inversion E; subst res s1'; clear E. cbn [fst snd].
    assert (C6 : (c =? 0) && negb (list_eqb m (filter (fun d => negb (memb d a) && negb (memb d b)) (dedup_sort ds))) = false).
    { destruct (c =? 0) eqn:Ec; [|reflexivity]. apply Z.eqb_eq in Ec. subst c.
      rewrite (cfm_fallback_exact _ _ _ _ _ F). cbn [sa sb]. rewrite list_eqb_refl. reflexivity. }
    assert (C7 : negb (negb (unfaulted (lg s1))) && negb (c =? 0) = false).
    { rewrite negb_involutive. destruct (unfaulted (lg s1)) eqn:U; [|reflexivity].
      rewrite (cfm_fallback_answers_unfaulted _ _ _ _ _ _ F U). reflexivity. }
    rewrite C6, C7. reflexivity.
  -
    destruct (cgfc r d (mkst a b fs [])) as [c s1'] eqn:G. inversion E; subst res s1'; clear E. cbn [fst snd].
    destruct (read_clauses cgfc r d a b fs c s1 G (cgfc_sound r d) (cgfc_complete_unfaulted r d)
                (fun s0 s2 Hc => cgfc_populates r d s0 s2 (copying_not_noop r Hc)) (cgfc_hard_fault_surfaces r d))
      as (C8 & C9 & C10 & C15).
    rewrite C8, C9, C10, C15. reflexivity.
Qed.

Lemma seq_go_silent k r h : forall a b,
  mon_seq_go k r h a b (map enc_obs (run_hist k r h (a, b))) = [].
Proof.
  induction h as [|of h IH]; intros a b; [reflexivity|].
  cbn [run_hist]. unfold run_step. cbn [fst snd]. cbv zeta.
  pose proof (seq_step_silent k r (fst of) (snd of) a b) as S.
  destruct (exec_op k r (fst of) (mkst a b (snd of) [])) as [res s1].
  cbn [map mon_seq_go]. rewrite S. cbn [app].
  unfold enc_obs at 1 2. rewrite !sx_nth_L. cbn [nth o_a o_b]. rewrite !sx_nats_of_nats. apply IH.
Qed.

Theorem mon_seq_silent_on_model inp : mon_seq inp (run_seq inp) = [].
Proof.
  unfold mon_seq, run_seq. destruct (seq_cfg inp) as [[[[k r] a] b] h].
  destruct (is_panic _); [reflexivity|]. cbn [sx_list]. apply seq_go_silent.
Qed.

Fixpoint desc (m : list (nat * nat)) : Prop :=
  match m with
  | [] => True
  | p :: r => Forall (fun q => (snd q < snd p)%nat) r /\ desc r
  end.

Lemma desc_app_l m1 m2 : desc (m1 ++ m2) -> desc m1.
Proof.
  induction m1 as [|p m1 IH]; cbn [app desc]; [auto|]. intros [F D]. split; [|apply IH, D].
  apply Forall_app in F. apply F.
Qed.

Lemma desc_filter f m : desc m -> desc (filter f m).
Proof.
  induction m as [|p m IH]; cbn [filter desc]; [auto|]. intros [F D]. specialize (IH D).
  destruct (f p); [|exact IH]. cbn [desc]. split; [|exact IH].
  rewrite Forall_forall in *. intros q Hq. apply filter_In in Hq. apply F, Hq.
Qed.

Lemma argmin_snoc m0 p : desc (m0 ++ [p]) -> argmin (m0 ++ [p]) = Some p.
Proof.
  induction m0 as [|[v i] m0 IH]; cbn [app desc argmin].
  - destruct p. reflexivity.
  - intros [F D]. rewrite (IH D). destruct p as [v' i'].
    rewrite Forall_forall in F. specialize (F (v', i') ltac:(apply in_or_app; right; left; reflexivity)). cbn [snd] in F.
    apply Nat.ltb_lt in F. rewrite F. reflexivity.
Qed.

Lemma filter_all {T} (f : T -> bool) l : (forall x, In x l -> f x = true) -> filter f l = l.
Proof.
  induction l as [|x l IH]; intros H; [reflexivity|]. cbn [filter]. rewrite (H x (or_introl eq_refl)).
  f_equal. apply IH. intros y Hy. apply H. right. exact Hy.
Qed.

Lemma map_fst_drop_key v m : map fst (drop_key v m) = remove_nat v (map fst m).
Proof.
  unfold drop_key. induction m as [|[a i] m IH]; [reflexivity|]. cbn [filter map fst remove_nat].
  rewrite (Nat.eqb_sym a v). destruct (Nat.eqb v a); cbn [negb map fst]; rewrite IH; reflexivity.
Qed.

Lemma remove_nat_app d l1 l2 : remove_nat d (l1 ++ l2) = remove_nat d l1 ++ remove_nat d l2.
Proof.
  induction l1 as [|h t IH]; [reflexivity|]. cbn [app remove_nat]. destruct (Nat.eqb d h); rewrite IH; reflexivity.
Qed.

Lemma remove_nat_rev d l : remove_nat d (rev l) = rev (remove_nat d l).
Proof.
  induction l as [|h t IH]; [reflexivity|]. cbn [rev remove_nat]. rewrite remove_nat_app, IH. cbn [remove_nat].
  destruct (Nat.eqb d h); cbn [rev]; [apply app_nil_r|reflexivity].
Qed.

(** The queue's front is the monitor's least-index element. *)
Lemma front_decomp s x q m : lru_ok s -> lq s = x :: q -> map fst m = rev (lq s) -> desc m ->
  exists m0 j, m = m0 ++ [(x, j)] /\ map fst m0 = rev q /\ argmin m = Some (x, j) /\ drop_key x m = m0.
Proof.
  intros [Hn _] E Hm D. rewrite E in Hm, Hn. cbn [rev] in Hm.
  apply map_eq_app in Hm. destruct Hm as (m0 & m1 & -> & H0 & H1).
  destruct m1 as [|[x' j] [|? ?]]; try discriminate. cbn in H1. inversion H1; subst x'.
  exists m0, j. split; [reflexivity|]. split; [exact H0|]. split; [apply argmin_snoc, D|].
  unfold drop_key. rewrite filter_app. cbn [filter fst]. rewrite Nat.eqb_refl. cbn [negb]. rewrite app_nil_r.
  apply filter_all. intros [a i] Ha. cbn [fst]. apply negb_true_iff, Nat.eqb_neq. intros ->.
  inversion Hn as [|? ? Hx _]; subst. apply Hx. apply in_rev. rewrite <- H0. apply (in_map fst _ _ Ha).
Qed.

Lemma lru_go_silent ops : forall s i m, lru_ok s -> map fst m = rev (lq s) -> desc m ->
  Forall (fun p => (snd p < i)%nat) m -> lpanic (snd (lru_run ops s)) = false ->
  mon_lru_go ops i m (map enc_peek (fst (lru_run ops s))) = [].
Proof.
  induction ops as [|o r IH]; intros s i m Hok Hm D B Hp; [reflexivity|].
  assert (Bs : forall m' : list (nat * nat), Forall (fun p => (snd p < i)%nat) m' -> Forall (fun p => (snd p < S i)%nat) m').
  { intros m'. apply Forall_impl. intros p. lia. }
  assert (Hnew : forall v s', lru_ok s' -> rev (lq s') = v :: rev (remove_nat v (lq s)) ->
            lpanic (snd (lru_run r s')) = false ->
            mon_lru_go r (S i) ((v, i) :: drop_key v m) (map enc_peek (fst (lru_run r s'))) = []).
  { intros v s' Hok' Hq' Hp'. apply IH; [exact Hok'| | | |exact Hp'].
    - cbn [map fst]. rewrite map_fst_drop_key, Hm, remove_nat_rev. symmetry. exact Hq'.
    - cbn [desc snd]. split; [|apply desc_filter, D].
      rewrite Forall_forall in *. intros p Hp0. apply filter_In in Hp0. apply B, Hp0.
    - constructor; [cbn; lia|]. apply Bs. rewrite Forall_forall in *. intros p Hp0. apply filter_In in Hp0. apply B, Hp0. }
  destruct o as [v|v| |]; cbn [lru_run mon_lru_go] in *.
  -
    destruct (memn v (lq s)) eqn:M.
    + exfalso. rewrite lru_run_panic in Hp; [discriminate|]. unfold lru_insert. rewrite M. reflexivity.
    + assert (Hni : ~ In v (lq s)) by (intros X; apply memn_in in X; rewrite X in M; discriminate).
      destruct (lru_insert_spec v s Hok Hni) as [Hok' Hq']. apply Hnew; [exact Hok'| |exact Hp].
      rewrite Hq', rev_unit, (remove_nat_notin v (lq s) Hni). reflexivity.
  -
    destruct (memn v (lq s)) eqn:M.
    + assert (Hi : In v (lq s)) by (apply memn_in; exact M).
      destruct (lru_touch_spec v s Hok Hi) as [Hok' Hq']. apply Hnew; [exact Hok'| |exact Hp].
      rewrite Hq', rev_unit. reflexivity.
    + exfalso. rewrite lru_run_panic in Hp; [discriminate|]. unfold lru_touch. rewrite M. reflexivity.
  -
    destruct (lru_run r s) as [a s'] eqn:R. cbn [fst snd map] in *.
    assert (Hrest : mon_lru_go r (S i) m (map enc_peek a) = []).
    { specialize (IH s (S i) m Hok Hm D (Bs m B)). rewrite R in IH. apply IH. exact Hp. }
    rewrite Hrest, app_nil_r.
    destruct (lq s) as [|x q] eqn:E.
    + cbn [rev] in Hm. apply map_eq_nil in Hm. subst m. reflexivity.
    + rewrite <- E in Hm. destruct (front_decomp s x q m Hok E Hm D) as (m0 & j & _ & _ & Ha & _).
      rewrite Ha. unfold lru_peek. rewrite E. cbn [enc_peek of_nat sx_Z]. rewrite Z.eqb_refl. reflexivity.
  -
    destruct (lq s) as [|x q] eqn:E.
    + exfalso. rewrite lru_run_panic in Hp; [discriminate|]. unfold lru_remove. rewrite E. reflexivity.
    + destruct (lru_remove_spec s x q Hok E) as (_ & Hok' & Hq').
      rewrite <- E in Hm. destruct (front_decomp s x q m Hok E Hm D) as (m0 & j & Hm0 & Hk & Ha & Hd).
      rewrite Ha, Hd. apply IH; [exact Hok'|rewrite Hq'; exact Hk| | |exact Hp].
      * subst m. apply desc_app_l in D. exact D.
      * apply Bs. subst m. apply Forall_app in B. apply B.
Qed.

Theorem mon_lru_silent_on_model inp : mon_lru inp (run_lru inp) = [].
Proof.
  unfold mon_lru, run_lru.
  pose proof (lru_go_silent (map dec_lop (sx_list (sx_nth inp 1))) lru_empty 0 []) as G.
  destruct (lru_run (map dec_lop (sx_list (sx_nth inp 1))) lru_empty) as [a s] eqn:R. cbn [fst snd] in G.
  destruct (lpanic s) eqn:P; [reflexivity|].
  destruct (is_panic _); [reflexivity|]. rewrite sx_nth_L. cbn [nth sx_list].
  apply G; [split; [constructor|reflexivity]|reflexivity|exact I|constructor|reflexivity].
Qed.

Lemma justified_true dur recs t d : justified_by dur recs t d -> justified dur recs t d = true.
Proof.
  intros (t0 & Hin & H1 & H2). unfold justified. apply existsb_exists. exists (d, t0). split; [exact Hin|].
  cbn [fst snd]. rewrite Nat.eqb_refl. cbn [andb]. apply andb_true_intro. split; apply N.leb_le; assumption.
Qed.

Lemma filter_present bk mm :
  filter (fun d => negb (memn d (filter (fun d => negb (memn d bk)) mm))) mm = filter (fun d => memn d bk) mm.
Proof.
  apply filter_ext_in. intros d Hd. destruct (memn d bk) eqn:M.
  - apply negb_true_iff. destruct (memn d (filter _ mm)) eqn:X; [|reflexivity].
    apply memn_in, filter_In in X. destruct X as [_ X]. rewrite M in X. discriminate.
  - apply negb_false_iff. apply memn_in, filter_In. split; [exact Hd|]. rewrite M. reflexivity.
Qed.

Lemma cached_forallb dur recs t ds mm :
  (forall d, In d ds -> ~ In d mm -> justified_by dur recs t d) ->
  forallb (justified dur recs t) (filter (fun d => negb (memn d mm)) ds) = true.
Proof.
  intros H. apply forallb_forall. intros d Hd. apply filter_In in Hd. destruct Hd as [Hd Hm].
  apply justified_true, H; [exact Hd|]. intros X. apply memn_in in X. rewrite X in Hm. discriminate.
Qed.

Lemma ltb_false_of_le a b : (b <= a)%nat -> Nat.ltb a b = false.
Proof. intros H. apply Nat.ltb_ge. exact H. Qed.

Lemma ec_step_silent size dur o s recs :
  step_sound dur o (fst (estep size dur o s)) recs -> (length (times (cache s)) <= size)%nat ->
  mon_ec_step size dur o recs (backend s) (enc_eobs (fst (estep size dur o s))) = ([], step_recs dur o s ++ recs).
Proof.
  intros Hs Hb. destruct o as [ds d1 d2 fault|ds d1|ds d1|d|d|d fault]; cbn [estep step_recs step_sound mon_ec_step] in *.
  - destruct (ec_remove_existing dur (now s + d1) (dedup_sort ds) (cache s)) as [mm c1] eqn:R. cbn [fst].
    pose proof (cached_bound _ _ _ _ _ _ R (dedup_sort_nodup ds)) as CB.
    destruct (negb (fault =? 0)) eqn:Ef; cbn [fst] in *; unfold enc_eobs; rewrite !sx_nth_L;
      cbn [nth sx_Z e_code e_ans e_call e_clock of_option]; rewrite !sx_nth_L; cbn [nth];
      rewrite !sx_nats_of_nats, SxFactsMA.sx_Ns_of_Ns; cbn [nth hd e_call e_clock] in *.
    + rewrite (cached_forallb dur recs _ _ mm (fun d Hd Hn => Hs d mm Hd eq_refl Hn)).
      apply negb_true_iff in Ef. rewrite Ef. cbn [andb app].
      rewrite (ltb_false_of_le _ _ (Nat.le_trans _ _ _ CB Hb)). reflexivity.
    + rewrite (cached_forallb dur recs _ _ mm (fun d Hd Hn => Hs d mm Hd eq_refl Hn)).
      change (0 =? 0) with true. cbn [andb app]. rewrite list_eqb_refl. cbn [negb].
      rewrite (ltb_false_of_le _ _ (Nat.le_trans _ _ _ CB Hb)). rewrite filter_present. reflexivity.
  - destruct (ec_remove_existing dur (now s + d1) (dedup_sort ds) (cache s)) as [mm c1] eqn:R. cbn [fst] in *.
    pose proof (cached_bound _ _ _ _ _ _ R (dedup_sort_nodup ds)) as CB.
    unfold enc_eobs; rewrite !sx_nth_L; cbn [nth sx_Z e_code e_ans e_call e_clock of_option];
      rewrite !sx_nats_of_nats, SxFactsMA.sx_Ns_of_Ns; cbn [nth hd e_ans e_clock] in *.
    rewrite (cached_forallb dur recs _ _ mm Hs). cbn [app].
    rewrite (ltb_false_of_le _ _ (Nat.le_trans _ _ _ CB Hb)). reflexivity.
  - cbn [fst]. unfold enc_eobs. rewrite !sx_nth_L. cbn [nth e_clock]. rewrite SxFactsMA.sx_Ns_of_Ns. reflexivity.
  - reflexivity.
  - reflexivity.
  - cbn [fst]. unfold enc_eobs. rewrite !sx_nth_L. cbn [nth sx_Z e_code e_call of_option]. rewrite !sx_nth_L. cbn [nth].
    rewrite sx_nats_of_nats, list_eqb_refl. cbn [andb app].
    destruct (fault =? 0) eqn:Ef; cbn [negb].
    + rewrite Z.eqb_refl. reflexivity.
    + rewrite Ef. reflexivity.
Qed.

Lemma backend_estep size dur o s :
  backend (snd (estep size dur o s)) =
  match o with
  | EBackendPut d => insert_sorted d (backend s)
  | EBackendDel d => remove_nat d (backend s)
  | _ => backend s
  end.
Proof.
  destruct o as [ds d1 d2 fault|ds d1|ds d1|d|d|d fault]; cbn [estep]; try reflexivity.
  - destruct (ec_remove_existing _ _ _ _). destruct (negb _); reflexivity.
  - destruct (ec_remove_existing _ _ _ _). reflexivity.
Qed.

Lemma ec_go_silent size dur ops : forall s recs,
  sound_hist size dur ops s recs -> small_hist size dur ops s ->
  mon_ec_go size dur ops recs (backend s) (map enc_eobs (fst (erun size dur ops s))) = [].
Proof.
  induction ops as [|o r IH]; intros s recs Hs Hb; [reflexivity|].
  cbn [sound_hist small_hist] in Hs, Hb. destruct Hs as [Hs1 Hs2]. destruct Hb as [Hb1 Hb2].
  pose proof (ec_step_silent size dur o s recs Hs1 Hb1) as St.
  pose proof (backend_estep size dur o s) as Bk.
  cbn [erun]. destruct (estep size dur o s) as [ob s1]. cbn [fst snd] in *.
  specialize (IH s1 _ Hs2 Hb2). destruct (erun size dur r s1) as [obs s2]. cbn [fst map mon_ec_go] in *.
  rewrite St. cbn [app]. rewrite <- Bk. exact IH.
Qed.

Theorem mon_ec_silent_on_model inp : mon_ec inp (run_ec inp) = [].
Proof.
  unfold mon_ec, run_ec. destruct (ec_cfg inp) as [[size dur] ops].
  pose proof (ec_go_silent size dur ops (mkest ec_empty 0%N []) [] (ec_sound size dur ops)) as G.
  pose proof (small_hist_from_empty size dur ops) as Sm.
  destruct (erun size dur ops (mkest ec_empty 0%N [])) as [obs s]. cbn [fst snd] in *.
  destruct (lpanic (elru (cache s))); [reflexivity|].
  destruct (is_panic _); [reflexivity|]. cbn [sx_list]. apply G, Sm. reflexivity.
Qed.

Lemma flat_map_nil {T U} (f : T -> list U) l : (forall x, f x = []) -> flat_map f l = [].
Proof. intros H. induction l as [|x l IH]; [reflexivity|]. cbn [flat_map]. rewrite H, IH. reflexivity. Qed.

Lemma mon_conc_placeholder inp : mon_conc inp (L []) = [].
Proof.
  unfold mon_conc. change (sx_eqb (L []) (L [A (-1)])) with false. cbn iota.
  destruct (conc_cfg inp) as [[[[m sets] source] sink] evs].
  change (sx_nat (sx_nth (L []) 1)) with 0%nat. change (sx_nat (sx_nth (L []) 2)) with 0%nat.
  change (sx_list (sx_nth (L []) 4)) with (@nil sx).
  rewrite flat_map_nil; [|intros i; reflexivity].
  destruct m as [|k|? ?]; reflexivity.
Qed.

Theorem mon17_silent_on_model inp : mon17 inp (run17 inp) = [].
Proof.
  unfold mon17, run17. destruct (sx_Z (sx_nth inp 0)) as [|p|p]; [apply mon_seq_silent_on_model| |reflexivity].
  destruct p as [p|p|]; [destruct p; try reflexivity; apply mon_lru_silent_on_model
                        |destruct p; try reflexivity; apply mon_conc_placeholder
                        |apply mon_ec_silent_on_model].
Qed.

(** The same for every observation the judge accepts as agreeing with the
    model.  For the deterministic kinds that is exactly [run17 inp].  The
    hypothesis "kind <> 2" is necessary: see
    [conc_success_clauses_not_determined_by_agreement]. *)
Theorem mon17_silent_on_agreeing_sequential inp obs :
  sx_Z (sx_nth inp 0) <> 2 -> agree17 inp obs = true -> mon17 inp obs = [].
Proof.
  intros Hk. pose proof (mon17_silent_on_model inp) as M. revert M.
  unfold agree17, judge17, mon17, run17, judge_det.
  destruct (sx_Z (sx_nth inp 0)) as [|p|p]; [| |reflexivity].
  - rewrite agree_verdict. intros M H. apply sx_eqb_eq in H. subst obs. exact M.
  - destruct p as [p|p|].
    + destruct p; try reflexivity. rewrite agree_verdict. intros M H. apply sx_eqb_eq in H. subst obs. exact M.
    + destruct p; try reflexivity. contradiction Hk. reflexivity.
    + rewrite agree_verdict. intros M H. apply sx_eqb_eq in H. subst obs. exact M.
Qed.

Theorem model_output_agrees inp :
  sx_Z (sx_nth inp 0) = 0 \/ sx_Z (sx_nth inp 0) = 1 \/ sx_Z (sx_nth inp 0) = 3 ->
  agree17 inp (run17 inp) = true.
Proof.
  unfold agree17, judge17, run17, judge_det.
  intros [H|[H|H]]; rewrite H; rewrite agree_verdict; apply sx_eqb_refl.
Qed.

(** * Non-vacuity (sequential kinds): inputs whose model runs exercise the clauses. *)
Example seq_example :
  let inp := L [A 0; A 1; L [A 2; A 0]; L [A 0]; L [A 1; A 2];
                L [L [A 0; A 1; L []]; L [A 0; A 2; L [A 0; A 0; A 14]]; L [A 1; A 3; L []];
                   L [A 2; L [A 0; A 3; A 4; A 2]; L []]; L [A 0; A 4; L []]]] in
  map (fun o => sx_Z (sx_nth o 0)) (sx_list (run17 inp)) = [0; 14; 0; 0; 5]
  /\ sx_nth (sx_nth (run17 inp) 3) 1 = L [A 4]
  /\ agree17 inp (run17 inp) = true /\ mon17 inp (run17 inp) = [].
Proof. vm_compute. repeat split; reflexivity. Qed.

(** Composite reads (GetFromComposite, op 3).  Read caching over the
    deduplicating local replicator, fast {0}, slow {1, 2}: parent 0 from fast;
    parent 1 read through (sink FindMissing, source Get, sink Put of the WHOLE
    parent, child read back from the sink), then from fast; parent 2 with a
    failing sink Put; with a failing fast backend; absent parent 4.  Read
    fallback over the local replicator, primary {}, secondary {1}: the
    primary's failure carries "Primary" (1), the secondary's "Secondary" (2),
    so does the INTERNAL made of the sink's NOT_FOUND after the copy. *)
Example seq_gfc_example :
  (let inp := L [A 0; A 0; L [A 2; A 0]; L [A 0]; L [A 1; A 2];
                 L [L [A 3; A 0; L []]; L [A 3; A 1; L []]; L [A 3; A 1; L []]; L [A 3; A 2; L [A 0; A 0; A 0; A 14]];
                    L [A 3; A 2; L [A 13]]; L [A 3; A 4; L []]]] in
   map (fun o => sx_Z (sx_nth o 0)) (sx_list (run17 inp)) = [0; 0; 0; 14; 13; 5]
   /\ map (fun o => length (sx_list (sx_nth o 2))) (sx_list (run17 inp)) = [1; 5; 1; 4; 1; 4]%nat
   /\ sx_nth (sx_nth (run17 inp) 1) 3 = L [A 0; A 1]
   /\ agree17 inp (run17 inp) = true /\ mon17 inp (run17 inp) = [])
  /\ (let inp := L [A 0; A 1; A 0; L []; L [A 1];
                 L [L [A 3; A 1; L [A 14]]; L [A 3; A 1; L [A 0; A 14]]; L [A 3; A 1; L [A 0; A 0; A 0; A 5]];
                    L [A 0; A 1; L [A 5; A 2]]; L [A 3; A 1; L []]]] in
      map (fun o => (sx_Z (sx_nth o 0), sx_Z (sx_nth o 5))) (sx_list (run17 inp)) = [(14, 1); (14, 2); (13, 2); (2, 2); (0, 0)]
      /\ agree17 inp (run17 inp) = true /\ mon17 inp (run17 inp) = [])
  /\ (* existence cache, size 1, duration 5: object 0 recorded present, lost by the backend; a
        FindMissing is still answered from the cache, a composite read is the backend's NOT_FOUND *)
     (let inp := L [A 1; A 1; A 5;
                L [L [A 3; A 0]; L [A 0; L [A 0]; A 0; A 0; A 0]; L [A 4; A 0]; L [A 0; L [A 0]; A 1; A 0; A 0];
                   L [A 5; A 0; A 0]; L [A 3; A 0]; L [A 5; A 0; A 0]; L [A 5; A 0; A 14]]] in
      map (fun o => (sx_Z (sx_nth o 0), sx_nth o 2)) (sx_list (run17 inp)) =
        [(0, L []); (0, L [L [A 0]]); (0, L []); (0, L [L []]); (5, L [L [A 0]]); (0, L []); (0, L [L [A 0]]); (14, L [L [A 0]])]
      /\ agree17 inp (run17 inp) = true /\ mon17 inp (run17 inp) = []).
Proof. vm_compute. repeat split; reflexivity. Qed.

Example ec_example :
  let inp := L [A 1; A 1; A 5;
                L [L [A 3; A 0]; L [A 3; A 1]; L [A 0; L [A 0]; A 0; A 0; A 0]; L [A 4; A 0];
                   L [A 0; L [A 0]; A 5; A 0; A 0]; L [A 0; L [A 0]; A 1; A 0; A 0];
                   L [A 0; L [A 0; A 1]; A 0; A 0; A 14]; L [A 1; L [A 0; A 1]; A 0]; L [A 2; L [A 1]; A 0]]] in
  map (fun o => sx_nth o 2) (sx_list (run17 inp)) =
    [L []; L []; L [L [A 0]]; L []; L [L []]; L [L [A 0]]; L [L [A 0; A 1]]; L []; L []]
  /\ agree17 inp (run17 inp) = true /\ mon17 inp (run17 inp) = [].
Proof. vm_compute. repeat split; reflexivity. Qed.

Example lru_example :
  let inp := L [A 3; L [L [A 0; A 5]; L [A 0; A 7]; L [A 2]; L [A 1; A 5]; L [A 2]; L [A 3]; L [A 2]]] in
  run17 inp = L [L [A 5; A 7; A 5]] /\ agree17 inp (run17 inp) = true /\ mon17 inp (run17 inp) = [].
Proof. vm_compute. repeat split; reflexivity. Qed.

(** Size 0 (rejected by the harness, accepted by the theorem): the first
    recording panics in the model, and the monitor does not judge a panic. *)
Example ec_size0_example :
  let inp := L [A 1; A 0; A 5; L [L [A 3; A 0]; L [A 0; L [A 0]; A 0; A 0; A 0]]] in
  run17 inp = L [A (-1)] /\ mon17 inp (run17 inp) = [].
Proof. vm_compute. split; reflexivity. Qed.


Definition conc_counts (m : mode) (mk ma : nat) : list Z :=
  match m with
  | MDedup => if Nat.ltb 1 mk then [21] else []
  | MLimit k => if Nat.ltb k ma then [22] else []
  | MQueued _ _ => if Nat.ltb 1 ma then [23] else []
  end.

Definition mon_conc_counts (inp obs : sx) : list Z :=
  let '(m, sets, source, sink, evs) := conc_cfg inp in
  conc_counts m (sx_nat (sx_nth obs 1)) (sx_nat (sx_nth obs 2)).

Definition mon_conc_success (inp obs : sx) : list Z :=
  let '(m, sets, source, sink, evs) := conc_cfg inp in
  let lg := sx_list (sx_nth obs 4) in
  flat_map (fun i =>
    let ds := nth i sets [] in
    match index_where (fun e => Z.eqb (lg_kind e) 3 && Nat.eqb (lg_caller e) i && Z.eqb (sx_Z (sx_nth e 2)) 0) lg 0,
          index_where (fun e => Z.eqb (lg_kind e) 0 && Nat.eqb (lg_caller e) i) lg 0 with
    | Some _, Some st =>
        match m with
        | MQueued _ dur =>
            let tstart := sx_N (sx_nth (nth st lg (L [])) 2) in
            if forallb (fun d => copied_within d dur tstart lg) ds then [] else [25]
        | _ => if forallb (fun d => justified_after d st lg 0) ds then [] else [24]
        end
    | _, _ => []
    end) (seq 0 (length sets)).

Lemma mon_conc_split inp obs :
  mon_conc inp obs = if sx_eqb obs (L [A (-1)]) then [] else mon_conc_counts inp obs ++ mon_conc_success inp obs.
Proof.
  unfold mon_conc, mon_conc_counts, mon_conc_success, conc_counts.
  destruct (conc_cfg inp) as [[[[m sets] source] sink] evs]. reflexivity.
Qed.

(** Every state the judge keeps has every property of the initial state that steps preserve. *)
Section Reach.
  Variable m : mode.
  Variable P : cstate -> Prop.
  Hypothesis Pstep : forall s e s', P s -> step m s e = Some s' -> P s'.

  Definition allP (l : list (cstate * sx)) : Prop := Forall (fun x => P (fst x)) l.

  Lemma allP_add_new x l : P (fst x) -> allP l -> allP (add_new x l).
  Proof. intros Hx Hl. unfold add_new. destruct (existsb _ l); [exact Hl|constructor; assumption]. Qed.

  Lemma allP_filter f l : allP l -> allP (filter f l).
  Proof. unfold allP. rewrite !Forall_forall. intros H x Hx. apply filter_In in Hx. apply H, Hx. Qed.

  Lemma tau_succ_P s : P s -> Forall P (tau_succ m s).
  Proof.
    intros Hs. unfold tau_succ. apply Forall_forall. intros s' Hin. apply in_flat_map in Hin.
    destruct Hin as (i & _ & Hin). apply in_app_or in Hin. destruct Hin as [Hin|Hin].
    - destruct (step m s (ETau i false)) eqn:E; [|destruct Hin]. destruct Hin as [<-|[]]. eapply Pstep; eassumption.
    - destruct (step m s (ETau i true)) eqn:E; [|destruct Hin]. destruct Hin as [<-|[]]. eapply Pstep; eassumption.
  Qed.

  Lemma quiesce_P fuel : forall frontier finals, allP frontier -> allP finals -> allP (quiesce fuel m frontier finals).
  Proof.
    induction fuel as [|f IH]; intros frontier finals Hf Hn; cbn [quiesce]; [exact Hn|].
    destruct frontier as [|x0 fr]; [exact Hn|].
    match goal with |- context [fold_left ?F ?l ?a] =>
      assert (FI : allP (fst (fold_left F l a)) /\ allP (snd (fold_left F l a))) end.
    { apply (fold_left_inv _ (fun acc => allP (fst acc) /\ allP (snd acc))); [split; [constructor|exact Hn]|].
      intros acc x [A1 A2] Hx.
      assert (Px : P (fst x)) by (unfold allP in Hf; rewrite Forall_forall in Hf; apply Hf, Hx).
      pose proof (tau_succ_P (fst x) Px) as T.
      destruct (tau_succ m (fst x)) as [|s1 succ]; cbn [fst snd].
      - split; [exact A1|apply allP_add_new; assumption].
      - split; [|exact A2]. apply (fold_left_inv _ allP); [exact A1|].
        intros a s' Ha Hs'. apply allP_add_new; [|exact Ha]. cbn [tag fst]. rewrite Forall_forall in T. apply T, Hs'. }
    destruct (fold_left _ (x0 :: fr) ([], finals)) as [next finals']. cbn [fst snd] in FI.
    apply IH; apply FI.
  Qed.

  Lemma round_P e o states : allP states -> allP (round m e o states).
  Proof.
    intros H. unfold round. apply allP_filter, quiesce_P; [|constructor].
    apply (fold_left_inv _ allP); [constructor|]. intros a x Ha Hx. apply allP_add_new; [|exact Ha]. cbn [tag fst].
    assert (Px : P (fst x)) by (unfold allP in H; rewrite Forall_forall in H; apply H, Hx).
    unfold apply_ev. destruct (step m (fst x) e) eqn:E; [eapply Pstep; eassumption|exact Px].
  Qed.

  Lemma rounds_P evs : forall obs states n, allP states -> allP (fst (rounds m evs obs states n)).
  Proof.
    induction evs as [|e evs IH]; intros [|o obs] states n H; cbn [rounds fst]; try constructor; [exact H|].
    pose proof (round_P e o states H) as R. destruct (round m e o states) as [|x l]; [constructor|].
    apply IH, R.
  Qed.
End Reach.

(** Clauses 21/22/23 are silent on every observation the judge accepts. *)
Theorem conc_counts_silent_run_conc inp obs : fst (run_conc inp obs) = true -> mon_conc_counts inp obs = [].
Proof.
  unfold run_conc, mon_conc_counts. destruct (conc_cfg inp) as [[[[m sets] source] sink] evs].
  set (P := fun s => Inv m s /\ aux m s).
  assert (Pstep : forall s e s', P s -> step m s e = Some s' -> P s').
  { intros s e s' [I A] St. split; [eapply step_inv; eassumption|eapply aux_step; eassumption]. }
  assert (Hinit : allP P [tag (init_state sets source sink)]).
  { constructor; [|constructor]. split; [apply inv_init|apply aux_init]. }
  pose proof (rounds_P m P Pstep evs (sx_list (sx_nth obs 0)) _ 0%nat Hinit) as R.
  destruct (rounds m evs (sx_list (sx_nth obs 0)) [tag (init_state sets source sink)] 0) as [fin n]. cbn [fst] in R.
  cbv zeta.
  destruct (filter _ fin) as [|x l] eqn:F; cbn [fst]; [discriminate|]. intros _.
  assert (Hx : In x (x :: l)) by (left; reflexivity). rewrite <- F in Hx. apply filter_In in Hx. destruct Hx as [Hin Hc].
  apply andb_prop in Hc. destruct Hc as [Hc _]. apply andb_prop in Hc. destruct Hc as [Hk Ha].
  apply Nat.eqb_eq in Hk, Ha. rewrite <- Hk, <- Ha.
  unfold allP in R. rewrite Forall_forall in R. pose proof (i_b _ _ (proj1 (R x Hin))) as B.
  unfold conc_counts. destruct m as [|lim|size dur]; cbn [bound_ok] in B;
    match goal with |- (if ?c then _ else _) = _ => assert (E : c = false) by (apply Nat.ltb_ge; exact B); rewrite E end; reflexivity.
Qed.

Theorem conc_counts_silent_on_agreeing inp obs :
  sx_Z (sx_nth inp 0) = 2 -> agree17 inp obs = true -> mon_conc_counts inp obs = [].
Proof.
  intros Hk. unfold agree17, judge17, judge_conc. rewrite Hk.
  pose proof (conc_counts_silent_run_conc inp obs) as C.
  destruct (run_conc inp obs) as [agree model]. rewrite agree_verdict. exact C.
Qed.

(** The judge's agreement test reads obs[0..3] only; the clauses 24/25 read
    the event log obs[4].  An observation that agrees with the model (no
    event, one caller that has not started) with a made-up log "caller 0
    starts; caller 0 returns OK" is accepted by the judge and makes clause 24
    fire: agreement does not determine the success clauses, so "agree =>
    silent" cannot be a theorem for them (and is not claimed).  The harness
    derives the log from the real run, so it never produces this pair. *)
Example conc_success_clauses_not_determined_by_agreement :
  let inp := L [A 2; L [A 0]; L [L [A 0]]; L [A 0]; L []; L []] in
  let obs := L [L []; A 0; A 0; L []; L [L [A 0; A 0; A 0]; L [A 3; A 0; A 0; A 0]]] in
  agree17 inp obs = true /\ mon17 inp obs = [24] /\ mon_conc_counts inp obs = [].
Proof. vm_compute. repeat split; reflexivity. Qed.

(** Non-vacuity for kind 2: two callers of the deduplicating replicator for the
    same object; the second waits while the first copies; the judge accepts
    the observation (statuses per round, maxima 1 / 1, sink [0]). *)
Example conc_example :
  let inp := L [A 2; L [A 0]; L [L [A 0]; L [A 0]]; L [A 0]; L [];
                L [L [A 0; A 0]; L [A 0; A 1]; L [A 1; A 0; A 0]; L [A 1; A 0; A 0]; L [A 1; A 0; A 0]]] in
  let obs := L [L [L [L [A 1; A 0; A 2; L [A 0]]; L [A 0]];
                   L [L [A 1; A 0; A 2; L [A 0]]; L [A 2]];
                   L [L [A 1; A 1; A 0; L [A 0]]; L [A 2]];
                   L [L [A 1; A 0; A 1; L [A 0]]; L [A 2]];
                   L [L [A 3; A 0]; L [A 3; A 0]]];
                A 1; A 1; L [A 0]; L []] in
  agree17 inp obs = true /\ mon17 inp obs = [].
Proof. vm_compute. split; reflexivity. Qed.

(** In general: the judge's agreement test for kind 2 is a function of
    obs[0..3]; the event log obs[4] is free. *)
Lemma run_conc_ignores_log inp o0 o1 o2 o3 lg lg' :
  run_conc inp (L [o0; o1; o2; o3; lg]) = run_conc inp (L [o0; o1; o2; o3; lg']).
Proof. reflexivity. Qed.

Theorem agreement_ignores_log inp o0 o1 o2 o3 lg lg' : sx_Z (sx_nth inp 0) = 2 ->
  agree17 inp (L [o0; o1; o2; o3; lg]) = agree17 inp (L [o0; o1; o2; o3; lg']).
Proof.
  intros Hk. unfold agree17, judge17, judge_conc. rewrite Hk.
  rewrite (run_conc_ignores_log inp o0 o1 o2 o3 lg lg').
  destruct (run_conc inp (L [o0; o1; o2; o3; lg'])) as [a mo]. rewrite !agree_verdict. reflexivity.
Qed.
