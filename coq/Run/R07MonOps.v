(** C07, "the monitor is silent on the model" — part 2: what one operation
    of the coarse executor does.

    [do_op_tri]: an operation never panics and is one of: nothing (with a
    result the monitor does not mistake for an effect), exactly one
    environment event of the LTS, or exactly one thread step with an external
    answer (I/O completion, timer expiry).  [qtraj]: what the following
    [quiesce] can do (clock, cancellation and lastSynchronizationTime
    untouched; at most one new DataSyncer call; a sync with keep = true can
    only be entered from [PNotify true], which only a timer expiry creates). *)
From Coq Require Import List NArith ZArith Bool Arith Lia.
From BBS Require Import Common.Sx Persist.PBL Persist.PBLProofs Persist.Syncer Persist.SyncerProofs
  Persist.LiveActs Persist.LiveCover Persist.LiveRelease Run.R07 Run.R07MonBase.
Import ListNotations.
Local Open Scope nat_scope.

Definition d_noop (x : xst) (r : Z) : outcome (xst * sx) := Ok (x, L [A r]).
Definition d_lift (x : xst) (o : option (outcome xst)) (r : sx) (no : Z) : outcome (xst * sx) :=
  match o with
  | None => Ok (x, L [A no])
  | Some Panic => Panic
  | Some (Ok x') => Ok (x', r)
  end.

Definition op1 (cfg : config) (op : sx) (x : xst) : outcome (xst * sx) :=
  let s := x_sys x in
  let p := s_pbl s in
  let back := sx_nat (sx_nth op 1) in
  let n := length (blocks p) in
  if (back <? n)%nat then
    let idx := (n - 1 - back)%nat in
    let blk := if sx_bool (sx_nth op 4) then None else Some (sx_Z (sx_nth op 3)) in
    let lo := if closedForWriting p then (-1)%Z else
              match nth_error (blocks p) idx with Some b => fst (b_loc b) | None => (-1)%Z end in
    match env_step cfg x (EPutStart idx (sx_Z (sx_nth op 2))) with
    | None => d_noop x 0
    | Some Panic => Panic
    | Some (Ok x') =>
        Ok (mkX (x_sys x') (x_nalloc x') (x_nseed x') (x_blk x' ++ [blk]) (x_nwr x') (x_nsy x'),
            L [A 1; A lo])
    end
  else d_noop x 0.

Definition op2 (cfg : config) (op : sx) (x : xst) : outcome (xst * sx) :=
  let s := x_sys x in
  let p := s_pbl s in
  let k := sx_nat (sx_nth op 1) in
  match nth_error (s_uploads s) k, nth_error (x_blk x) k with
  | Some (Some (tok, size)), Some blk =>
      let seed := (1000 + x_nseed x)%N in
      match put_finalize tok blk size seed p with
      | Panic => Panic
      | Ok (p', fr) =>
          match env_step cfg x (EFinalize k blk seed) with
          | None => d_noop x (-1)
          | Some Panic => Panic
          | Some (Ok x') =>
              let grew := (length (epochSeeds p) <? length (epochSeeds p'))%nat in
              let x'' := mkX (x_sys x') (x_nalloc x') (if grew then x_nseed x' + 1 else x_nseed x')%N
                             (x_blk x') (x_nwr x') (x_nsy x') in
              match fr with
              | FinOk off =>
                  let idx := match tok with PutAt abs => (abs - totalReleased p')%nat | PutClosed => O end in
                  match index_to_ref idx p' with
                  | Panic => Panic
                  | Ok ((e, bfl), sd) => Ok (x'', L [A 0; A off; of_N e; of_N bfl; of_N sd])
                  end
              | FinBlockError => Ok (x'', L [A 10])
              | FinClosed => Ok (x'', L [A 14])
              | FinReleased => Ok (x'', L [A 13])
              end
          end
      end
  | _, _ => d_noop x (-1)
  end.

Definition op3 (cfg : config) (op : sx) (x : xst) := d_lift x (env_step cfg x EPopFront) (L [A 1]) 0.

Definition op4 (cfg : config) (op : sx) (x : xst) : outcome (xst * sx) :=
  let p := s_pbl (x_sys x) in
  let ok := sx_bool (sx_nth op 1) in
  let l : loc := ((10000 + 100 * Z.of_nat (x_nalloc x))%Z, 100%Z) in
  let alloc := if ok then Some l else None in
  match snd (push_back alloc p) with
  | PushOk =>
      match env_step cfg x (EPushBack alloc) with
      | Some (Ok x') => Ok (mkX (x_sys x') (S (x_nalloc x')) (x_nseed x') (x_blk x') (x_nwr x') (x_nsy x'),
                            L [A 0; A (fst l)])
      | _ => Panic
      end
  | PushClosed => Ok (x, L [A 14])
  | PushAllocFailed => Ok (x, L [A 8])
  end.

Definition op5 (cfg : config) (op : sx) (x : xst) : outcome (xst * sx) :=
  let s := x_sys x in
  if is_syncing s then d_lift x (tstep cfg TP (mkAns (sx_bool (sx_nth op 1)) (s_now s)) x) (L [A 1]) 0
  else d_noop x 0.

Definition op6 (cfg : config) (op : sx) (x : xst) : outcome (xst * sx) :=
  let s := x_sys x in
  match writer s with
  | Some t => d_lift x (tstep cfg t (mkAns (sx_bool (sx_nth op 1)) (s_now s)) x) (L [A 1]) 0
  | None => d_noop x 0
  end.

Definition op7 (cfg : config) (op : sx) (x : xst) := d_lift x (env_step cfg x (ETick (sx_N (sx_nth op 1)))) (L []) 0.

Definition op8 (cfg : config) (op : sx) (x : xst) : outcome (xst * sx) :=
  let s := x_sys x in
  if Z.eqb (sx_Z (sx_nth op 1)) 0 then
    match s_r s with
    | RW (WSleep dl) => if due dl s then d_lift x (tstep cfg TR (mkAns false (s_now s)) x) (L [A 1]) 0 else d_noop x 0
    | _ => d_noop x 0
    end
  else
    match s_p s with
    | PTimer dl | PSyncSleep _ _ dl | PW _ (WSleep dl) =>
        if due dl s then d_lift x (tstep cfg TP (mkAns false (s_now s)) x) (L [A 1]) 0 else d_noop x 0
    | _ => d_noop x 0
    end.

Definition op9 (cfg : config) (op : sx) (x : xst) := d_lift x (env_step cfg x ECancel) (L []) 0.

Definition op10 (cfg : config) (op : sx) (x : xst) : outcome (xst * sx) :=
  match ref_to_index (sx_N (sx_nth op 1)) (sx_N (sx_nth op 2)) (s_pbl (x_sys x)) with
  | Panic => Panic
  | Ok None => d_noop x (-1)
  | Ok (Some (i, sd)) => Ok (x, L [of_nat i; of_N sd])
  end.

Definition op11 (cfg : config) (op : sx) (x : xst) : outcome (xst * sx) :=
  match index_to_ref (sx_nat (sx_nth op 1)) (s_pbl (x_sys x)) with
  | Panic => d_noop x (-2)
  | Ok ((e, bfl), sd) => Ok (x, L [of_N e; of_N bfl; of_N sd])
  end.

Definition op_at (cfg : config) (op : sx) (x : xst) (t : Z) : outcome (xst * sx) :=
  match t with
  | 1 => op1 cfg op x | 2 => op2 cfg op x | 3 => op3 cfg op x | 4 => op4 cfg op x
  | 5 => op5 cfg op x | 6 => op6 cfg op x | 7 => op7 cfg op x | 8 => op8 cfg op x
  | 9 => op9 cfg op x | 10 => op10 cfg op x | 11 => op11 cfg op x
  | _ => d_noop x (-9)
  end%Z.

Lemma do_op_at cfg op x : do_op cfg op x = op_at cfg op x (tag op).
Proof. reflexivity. Qed.

Lemma op_at_other cfg op x t : (t < 1 \/ 11 < t)%Z -> op_at cfg op x t = d_noop x (-9).
Proof.
  intros H. destruct t as [|p|p]; [reflexivity| |reflexivity].
  do 4 (try destruct p as [p|p|]); try reflexivity; lia.
Qed.

Lemma do_op_ind cfg op x (P : outcome (xst * sx) -> Prop) :
  (tag op = 1%Z -> P (op1 cfg op x)) -> (tag op = 2%Z -> P (op2 cfg op x)) -> (tag op = 3%Z -> P (op3 cfg op x)) ->
  (tag op = 4%Z -> P (op4 cfg op x)) -> (tag op = 5%Z -> P (op5 cfg op x)) -> (tag op = 6%Z -> P (op6 cfg op x)) ->
  (tag op = 7%Z -> P (op7 cfg op x)) -> (tag op = 8%Z -> P (op8 cfg op x)) -> (tag op = 9%Z -> P (op9 cfg op x)) ->
  (tag op = 10%Z -> P (op10 cfg op x)) -> (tag op = 11%Z -> P (op11 cfg op x)) ->
  ((tag op < 1 \/ 11 < tag op)%Z -> P (d_noop x (-9))) -> P (do_op cfg op x).
Proof.
  intros H1 H2 H3 H4 H5 H6 H7 H8 H9 H10 H11 H0. rewrite do_op_at.
  assert (H : (tag op = 1 \/ tag op = 2 \/ tag op = 3 \/ tag op = 4 \/ tag op = 5 \/ tag op = 6 \/ tag op = 7 \/
               tag op = 8 \/ tag op = 9 \/ tag op = 10 \/ tag op = 11 \/ (tag op < 1 \/ 11 < tag op))%Z) by lia.
  destruct H as [E|[E|[E|[E|[E|[E|[E|[E|[E|[E|[E|E]]]]]]]]]]].
  1-11: rewrite E; auto.
  rewrite (op_at_other _ _ _ _ E). auto.
Qed.

Definition op_none (code : Z) (res : sx) : Prop :=
  ((code = 1 \/ code = 3 \/ code = 5 \/ code = 6 \/ code = 8)%Z -> tag res = 0%Z)
  /\ (code = 4%Z -> tag res <> 0%Z)
  /\ (code = 2%Z -> tag res <> 0%Z)
  /\ code <> 7%Z /\ code <> 9%Z.

Definition env_ok (op : sx) (x : xst) (e : event) (res : sx) : Prop :=
  match e with
  | EPushBack al => tag op = 4%Z /\ exists l, al = Some l /\ res = L [A 0; A (fst l)]
                                    /\ closedForWriting (s_pbl (x_sys x)) = false
  | EPopFront => tag op = 3%Z /\ res = L [A 1]
  | EPutStart _ _ => tag op = 1%Z /\ tag res = 1%Z
  | EFinalize _ _ _ => tag op = 2%Z
  | ETick d => tag op = 7%Z /\ d = sx_N (sx_nth op 1) /\ res = L []
  | ECancel => tag op = 9%Z /\ res = L []
  | EStep _ _ => False
  end.

Definition p_timer_at (s : sys) (dl : N) : Prop :=
  s_p s = PTimer dl \/ (exists k f, s_p s = PSyncSleep k f dl) \/ (exists k, s_p s = PW k (WSleep dl)).

Definition thr_ok (op : sx) (x : xst) (t : tid) (a : ans) (res : sx) : Prop :=
  res = L [A 1] /\ a_time a = s_now (x_sys x) /\
  ((tag op = 5%Z /\ t = TP /\ is_syncing (x_sys x) = true /\ a_ok a = sx_bool (sx_nth op 1)) \/
   (tag op = 6%Z /\ writer (x_sys x) = Some t /\ a_ok a = sx_bool (sx_nth op 1)) \/
   (tag op = 8%Z /\ a_ok a = false /\
    ((sx_Z (sx_nth op 1) = 0%Z /\ t = TR /\ exists dl, s_r (x_sys x) = RW (WSleep dl)) \/
     (sx_Z (sx_nth op 1) <> 0%Z /\ t = TP /\
      exists dl, p_timer_at (x_sys x) dl /\ (dl <= s_now (x_sys x))%N)))).

Definition tri (cfg : config) (op : sx) (x x1 : xst) (res : sx) : Prop :=
  (x1 = x /\ op_none (tag op) res)
  \/ (exists e, env_ok op x e res /\ step cfg (x_sys x) e = Some (Ok (x_sys x1))
                /\ x_nsy x1 = x_nsy x /\ x_nwr x1 = x_nwr x)
  \/ (exists t a, thr_ok op x t a res /\ tstep cfg t a x = Some (Ok x1)).

Lemma op_none_A code r : code <> 7%Z -> code <> 9%Z ->
  ((code = 1 \/ code = 3 \/ code = 5 \/ code = 6 \/ code = 8)%Z -> r = 0%Z) ->
  (code = 4%Z \/ code = 2%Z -> r <> 0%Z) -> op_none code (L [A r]).
Proof. intros H7 H9 H0 H1. repeat split; auto. Qed.

Lemma index_to_ref_ok i p : pbl_inv p -> epochSeeds p <> [] -> exists r, index_to_ref i p = Ok r.
Proof.
  intros I Hne. unfold index_to_ref. destruct (length (epochSeeds p)) as [|n] eqn:El.
  - destruct (epochSeeds p); [congruence|discriminate].
  - destruct (nth_error (epochLast p) n) eqn:E1.
    + destruct (nth_error (epochSeeds p) n) eqn:E2; [eexists; reflexivity|].
      apply nth_error_None in E2. lia.
    + apply nth_error_None in E1. rewrite (i_len _ I) in E1. lia.
Qed.

Lemma writer_cases s t : writer s = Some t ->
  (t = TR /\ exists st, s_r s = RW (WWriting st)) \/ (t = TP /\ exists k st, s_p s = PW k (WWriting st)).
Proof.
  unfold writer. destruct (s_r s) as [| |[]]; destruct (s_p s) as [| | | | | | | |k []|]; intros H; inversion H;
    first [left; split; [reflexivity|eexists; reflexivity]|right; split; [reflexivity|eexists _, _; reflexivity]].
Qed.

Section Tri.
Variable cfg : config.
Variable alloc : loc -> Z -> bool.
Variable oldest : N.
Variable init : list bstate.
Variable t0 : N.
Notation good := (good cfg alloc oldest init t0).

Lemma tri_same op x res : op_none (tag op) res ->
  exists x1 res', Ok (x, res) = Ok (x1, res') /\ tri cfg op x x1 res'.
Proof. intros H. eexists _, _. split; [reflexivity|]. left. auto. Qed.

Lemma d_lift_env op x e r no : good (x_sys x) -> env_ok op x e r ->
  op_none (tag op) (L [A no]) ->
  exists x1 res, d_lift x (env_step cfg x e) r no = Ok (x1, res) /\ tri cfg op x x1 res.
Proof.
  intros G He Hn. unfold d_lift. destruct (env_step cfg x e) as [[x'|]|] eqn:E.
  - eexists _, _. split; [reflexivity|]. right. left. exists e.
    destruct (env_step_ok _ _ _ _ E) as [Hs [_ [H1 H2]]]. auto.
  - exfalso. eapply env_step_nopanic; eauto.
  - apply tri_same; auto.
Qed.

Lemma d_lift_thr op x t a : good (x_sys x) -> thr_ok op x t a (L [A 1]) ->
  op_none (tag op) (L [A 0]) ->
  exists x1 res, d_lift x (tstep cfg t a x) (L [A 1]) 0 = Ok (x1, res) /\ tri cfg op x x1 res.
Proof.
  intros G He Hn. unfold d_lift. destruct (tstep cfg t a x) as [[x'|]|] eqn:E.
  - eexists _, _. split; [reflexivity|]. right. right. exists t, a. auto.
  - exfalso. eapply tstep_nopanic; eauto.
  - apply tri_same; auto.
Qed.

Lemma tri_op1 op x : tag op = 1%Z -> good (x_sys x) ->
  exists x1 res, op1 cfg op x = Ok (x1, res) /\ tri cfg op x x1 res.
Proof.
  intros Hc G. unfold op1. cbv zeta. destruct (_ <? _)%nat.
  - destruct (env_step cfg x _) as [[x'|]|] eqn:E.
    + destruct (env_step_ok _ _ _ _ E) as [Hs [_ [H1 H2]]].
      eexists _, _. split; [reflexivity|]. right. left. eexists.
      refine (conj _ (conj Hs (conj _ _))); unfold tag; cbn; auto.
    + exfalso. eapply env_step_nopanic; eauto.
    + apply tri_same. apply op_none_A; lia.
  - apply tri_same. apply op_none_A; lia.
Qed.

Lemma tri_op2 op x : tag op = 2%Z -> good (x_sys x) ->
  exists x1 res, op2 cfg op x = Ok (x1, res) /\ tri cfg op x x1 res.
Proof.
  intros Hc G. unfold op2. cbv zeta.
  destruct (nth_error (s_uploads (x_sys x)) _) as [[[tok size]|]|] eqn:Eu;
    try (apply tri_same; apply op_none_A; lia).
  destruct (nth_error (x_blk x) _) as [blk|] eqn:Eb;
    try (apply tri_same; apply op_none_A; lia).
  pose proof (good_inv1 _ _ _ _ _ _ G) as [I U].
  assert (tok_ok (s_pbl (x_sys x)) tok) as Hok.
  { apply nth_error_In in Eu. rewrite Forall_forall in U. apply (U _ Eu). }
  destruct (put_finalize_inv tok blk size (1000 + x_nseed x)%N _ I Hok) as [p' [fr [Hf [I' _]]]].
  rewrite Hf.
  destruct (env_step cfg x _) as [[x'|]|] eqn:E.
  - destruct (env_step_ok _ _ _ _ E) as [Hs [_ [H1 H2]]].
    assert (forall x1 res, x_sys x1 = x_sys x' -> x_nsy x1 = x_nsy x' -> x_nwr x1 = x_nwr x' ->
                           tri cfg op x x1 res) as Hdone.
    { intros x1 res E1 E2 E3. right. left. exists (EFinalize (sx_nat (sx_nth op 1)) blk (1000 + x_nseed x)%N).
      cbn [env_ok]. splits; [exact Hc|rewrite E1; exact Hs|congruence|congruence]. }
    destruct fr as [off| | |]; try (eexists _, _; split; [reflexivity|]; apply Hdone; reflexivity).
    assert (epochSeeds p' <> []) as Hne.
    { destruct (fin_cases _ _ _ _ _ _ _ Hf) as [[_ Hno]|
        (abs & off' & bumped & _ & _ & _ & _ & _ & _ & _ & Fs & Fl & Fb & _)]; [exfalso; eapply Hno; reflexivity|].
      destruct bumped.
      - rewrite Fs. destruct (epochSeeds (s_pbl (x_sys x))); discriminate.
      - destruct (Fb eq_refl) as [_ [la Hla]]. intros Hn.
        pose proof (i_len _ I') as Hlen. rewrite Fl, Hn in Hlen.
        destruct (epochLast (s_pbl (x_sys x))); [|discriminate]. destruct Hla as [Hla _]. discriminate. }
    destruct (index_to_ref_ok (match tok with PutAt abs => abs - totalReleased p' | PutClosed => 0 end) p' I' Hne)
      as [[[e bfl] sd] Hr].
    rewrite Hr. eexists _, _. split; [reflexivity|]. apply Hdone; reflexivity.
  - exfalso. eapply env_step_nopanic; eauto.
  - apply tri_same. apply op_none_A; lia.
Qed.

Lemma tri_op3 op x : tag op = 3%Z -> good (x_sys x) ->
  exists x1 res, op3 cfg op x = Ok (x1, res) /\ tri cfg op x x1 res.
Proof.
  intros Hc G. unfold op3. apply d_lift_env; auto.
  - cbn. auto.
  - apply op_none_A; lia.
Qed.

Lemma tri_op4 op x : tag op = 4%Z -> good (x_sys x) ->
  exists x1 res, op4 cfg op x = Ok (x1, res) /\ tri cfg op x x1 res.
Proof.
  intros Hc G. unfold op4. cbv zeta.
  match goal with |- context [push_back ?a _] => set (al := a) end.
  destruct (snd (push_back al (s_pbl (x_sys x)))) eqn:Ep.
  - unfold env_step. cbn [step].
    eexists _, _. split; [reflexivity|]. right. left. exists (EPushBack al).
    split; [|split; [reflexivity|cbn; auto]].
    cbn [env_ok]. split; [exact Hc|]. unfold push_back in Ep.
    destruct (closedForWriting (s_pbl (x_sys x))); [discriminate|].
    unfold al in *. destruct (sx_bool (sx_nth op 1)); [|discriminate].
    eexists. splits; reflexivity.
  - apply tri_same. apply op_none_A; lia.
  - apply tri_same. apply op_none_A; lia.
Qed.

Lemma tri_op5 op x : tag op = 5%Z -> good (x_sys x) ->
  exists x1 res, op5 cfg op x = Ok (x1, res) /\ tri cfg op x x1 res.
Proof.
  intros Hc G. unfold op5. cbv zeta. destruct (is_syncing (x_sys x)) eqn:Es.
  - apply d_lift_thr; auto.
    + unfold thr_ok. cbn. splits; auto.
    + apply op_none_A; lia.
  - apply tri_same. apply op_none_A; lia.
Qed.

Lemma tri_op6 op x : tag op = 6%Z -> good (x_sys x) ->
  exists x1 res, op6 cfg op x = Ok (x1, res) /\ tri cfg op x x1 res.
Proof.
  intros Hc G. unfold op6. cbv zeta. destruct (writer (x_sys x)) as [t|] eqn:Ew.
  - apply d_lift_thr; auto.
    + unfold thr_ok. cbn. splits; auto.
    + apply op_none_A; lia.
  - apply tri_same. apply op_none_A; lia.
Qed.

Lemma d_lift_env_ok op x e r no s' : step cfg (x_sys x) e = Some (Ok s') -> env_ok op x e r ->
  exists x1 res, d_lift x (env_step cfg x e) r no = Ok (x1, res) /\ tri cfg op x x1 res.
Proof.
  intros Hs He. unfold d_lift, env_step. rewrite Hs. eexists _, _. split; [reflexivity|].
  right. left. exists e. cbn. auto.
Qed.

Lemma tri_op7 op x : tag op = 7%Z -> good (x_sys x) ->
  exists x1 res, op7 cfg op x = Ok (x1, res) /\ tri cfg op x x1 res.
Proof. intros Hc G. unfold op7. eapply d_lift_env_ok; [reflexivity|cbn; auto]. Qed.

Lemma tri_op9 op x : tag op = 9%Z -> good (x_sys x) ->
  exists x1 res, op9 cfg op x = Ok (x1, res) /\ tri cfg op x x1 res.
Proof. intros Hc G. unfold op9. eapply d_lift_env_ok; [reflexivity|cbn; auto]. Qed.

Lemma tri_op8 op x : tag op = 8%Z -> good (x_sys x) ->
  exists x1 res, op8 cfg op x = Ok (x1, res) /\ tri cfg op x x1 res.
Proof.
  intros Hc G. unfold op8. cbv zeta.
  assert (Hn : op_none (tag op) (L [A 0%Z])).
  { apply op_none_A; lia. }
  destruct (Z.eqb_spec (sx_Z (sx_nth op 1)) 0) as [Hw|Hw].
  - destruct (s_r (x_sys x)) as [| |[| | | |dl]] eqn:Er;
      try (apply tri_same; exact Hn).
    destruct (due dl (x_sys x)) eqn:Ed; [|apply tri_same; exact Hn].
    apply d_lift_thr; auto. unfold thr_ok. cbn. splits; auto.
    right. right. splits; auto. left. splits; eauto.
  - assert (forall dl, p_timer_at (x_sys x) dl ->
              exists x1 res, (if due dl (x_sys x)
                              then d_lift x (tstep cfg TP (mkAns false (s_now (x_sys x))) x) (L [A 1%Z]) 0
                              else d_noop x 0) = Ok (x1, res) /\ tri cfg op x x1 res) as Hcase.
    { intros dl Hat. destruct (due dl (x_sys x)) eqn:Ed; [|apply tri_same; exact Hn].
      apply d_lift_thr; auto. unfold thr_ok. cbn. splits; auto.
      right. right. splits; auto. right. splits; auto. exists dl. split; [exact Hat|].
      unfold due in Ed. apply N.leb_le. exact Ed. }
    destruct (s_p (x_sys x)) as [|ch|ch|dl|keep|keep final|keep final|keep final dl|keep [| | | |dl]|] eqn:Ep;
      try (apply tri_same; exact Hn).
    + apply Hcase. left. exact Ep.
    + apply Hcase. right. left. eauto.
    + apply Hcase. right. right. eauto.
Qed.

Lemma tri_op10 op x : tag op = 10%Z -> good (x_sys x) ->
  exists x1 res, op10 cfg op x = Ok (x1, res) /\ tri cfg op x x1 res.
Proof.
  intros Hc G. unfold op10.
  assert (Hn : forall res, op_none (tag op) res).
  { intros res. unfold op_none. rewrite Hc. repeat split; intros; try lia; try discriminate. }
  destruct (ref_to_index _ _ _) as [[[i sd]|]|] eqn:E.
  - apply tri_same; auto.
  - apply tri_same; auto.
  - exfalso. pose proof (good_inv1 _ _ _ _ _ _ G) as [I _]. unfold ref_to_index in E.
    destruct (_ <=? _)%N eqn:El; [discriminate|]. apply N.leb_gt in El.
    set (n := N.to_nat (u32 (sx_N (sx_nth op 1) + 2 ^ 32 - oldestEpochID (s_pbl (x_sys x))))) in *.
    assert (n < length (epochSeeds (s_pbl (x_sys x)))) as Hlt by (unfold n; lia).
    destruct (nth_error (epochLast (s_pbl (x_sys x))) n) eqn:E1.
    + destruct (nth_error (epochSeeds (s_pbl (x_sys x))) n) eqn:E2.
      * destruct (_ <? _)%Z; discriminate.
      * apply nth_error_None in E2. lia.
    + apply nth_error_None in E1. rewrite (i_len _ I) in E1. lia.
Qed.

Lemma tri_op11 op x : tag op = 11%Z -> good (x_sys x) ->
  exists x1 res, op11 cfg op x = Ok (x1, res) /\ tri cfg op x x1 res.
Proof.
  intros Hc G. unfold op11.
  assert (Hn : forall res, op_none (tag op) res).
  { intros res. unfold op_none. rewrite Hc. repeat split; intros; try lia; try discriminate. }
  destruct (index_to_ref _ _) as [[[e bfl] sd]|]; apply tri_same; apply Hn.
Qed.

Theorem do_op_tri op x : good (x_sys x) ->
  exists x1 res, do_op cfg op x = Ok (x1, res) /\ tri cfg op x x1 res.
Proof.
  intros G. apply do_op_ind; intros Hc.
  - apply tri_op1; auto.
  - apply tri_op2; auto.
  - apply tri_op3; auto.
  - apply tri_op4; auto.
  - apply tri_op5; auto.
  - apply tri_op6; auto.
  - apply tri_op7; auto.
  - apply tri_op8; auto.
  - apply tri_op9; auto.
  - apply tri_op10; auto.
  - apply tri_op11; auto.
  - apply tri_same. unfold op_none. repeat split; intros; lia.
Qed.

Lemma tri_good op x x1 res : good (x_sys x) -> tri cfg op x x1 res -> good (x_sys x1).
Proof.
  intros G [[-> _]|[[e [_ [Hs _]]]|[t [a [_ Ht]]]]]; auto.
  - eapply step_good; eauto.
  - destruct (tstep_ok _ _ _ _ _ Ht) as [Hs _]. eapply step_good; eauto.
Qed.

Inductive pext (c : bool) : Z -> bool -> ppc -> ppc -> Prop :=
| pe_sync_ok k f : pext c 5 true (PSyncing k f) (PSyncRet k f)
| pe_sync_fail k f dl : pext c 5 false (PSyncing k f) (PSyncSleep k f dl)
| pe_write_ok k st : pext c 6 true (PW k (WWriting st)) (PW k WWritten)
| pe_write_fail k st dl : pext c 6 false (PW k (WWriting st)) (PW k (WSleep dl))
| pe_timer_cancel dl b : c = true -> pext c 8 b (PTimer dl) (PNotify false)
| pe_timer dl b : pext c 8 b (PTimer dl) (PNotify true)
| pe_wake_sync k f dl b : pext c 8 b (PSyncSleep k f dl) (PSyncing k f)
| pe_wake_write k dl b : pext c 8 b (PW k (WSleep dl)) (PW k WAcquire).

Lemma pstep_external op x a res s1 : inv1 (x_sys x) -> thr_ok op x TP a res ->
  pstep cfg a (x_sys x) = Some (Ok s1) ->
  pext (s_cancel (x_sys x)) (tag op) (sx_bool (sx_nth op 1)) (s_p (x_sys x)) (s_p s1)
  /\ (forall dl, s_p (x_sys x) = PTimer dl -> s_p s1 = PNotify true ->
       s_last s1 = s_now (x_sys x) /\ (dl <= s_now (x_sys x))%N).
Proof.
  intros II [_ [Hat Hth]] Hs. destruct (pstep_shape _ _ _ _ II Hs) as [_ [_ [Sh _]]].
  destruct Hth as [[E5 [_ [Hsyn Hok]]]|[[E6 [Hwr Hok]]|[E8 [_ [[_ [Et _]]|[_ [_ [dl [Hat' _]]]]]]]]];
    [| |discriminate Et|].
  - rewrite E5, <- Hok. unfold is_syncing in Hsyn. revert Sh.
    destruct (s_p (x_sys x)); try discriminate Hsyn.
    intros [[-> ->]|[-> ->]]; (split; [constructor|intros dl H; discriminate H]).
  - rewrite E6, <- Hok. destruct (writer_cases _ _ Hwr) as [[Et _]|[_ [k [st Ep]]]]; [discriminate Et|].
    rewrite Ep in *. destruct Sh as [[w' [-> [[-> ->]|[-> ->]]]]|[Sw _]]; [| |discriminate Sw];
      (split; [constructor|intros dl H; discriminate H]).
  - rewrite E8. destruct Hat' as [Ep|[[k [f Ep]]|[k Ep]]]; rewrite Ep in *.
    + destruct Sh as [[Hc [-> _]]|[-> [Sl [Hd _]]]].
      * split; [constructor; exact Hc|intros dl0 _ H; discriminate H].
      * split; [constructor|]. intros dl0 E _. inversion E; subst dl0. rewrite Sl, <- Hat. auto.
    + rewrite Sh. split; [constructor|intros dl0 H; discriminate H].
    + destruct Sh as [[w' [-> ->]]|[Sw _]]; [|discriminate Sw]. split; [constructor|intros dl0 H; discriminate H].
Qed.

Definition is_sleep (p : ppc) : bool := match p with PSyncSleep _ _ _ => true | _ => false end.

Record qtraj (x1 x2 : xst) : Prop := mkQ {
  q_now : s_now (x_sys x2) = s_now (x_sys x1);
  q_cancel : s_cancel (x_sys x2) = s_cancel (x_sys x1);
  q_last : s_last (x_sys x2) = s_last (x_sys x1);
  q_tr : totalReleased (s_pbl (x_sys x2)) = totalReleased (s_pbl (x_sys x1));
  q_nsy : if is_syncing (x_sys x1) then x_nsy x2 = x_nsy x1 /\ s_p (x_sys x2) = s_p (x_sys x1)
          else x_nsy x2 = (if is_syncing (x_sys x2) then S (x_nsy x1) else x_nsy x1);
  q_keep : s_p (x_sys x2) = PNotify true \/ (exists f, s_p (x_sys x2) = PSyncing true f) ->
           s_p (x_sys x1) = PNotify true \/ s_p (x_sys x1) = s_p (x_sys x2);
  q_sleep1 : is_sleep (s_p (x_sys x2)) = true -> s_p (x_sys x1) = s_p (x_sys x2);
  q_sleep2 : is_sleep (s_p (x_sys x1)) = true -> s_p (x_sys x2) = s_p (x_sys x1);
  q_notify : forall k, s_p (x_sys x1) = PNotify k -> s_p (x_sys x2) = PNotify k \/ s_p (x_sys x2) = PSyncing k false
}.

Lemma qtraj_refl x : qtraj x x.
Proof.
  constructor; auto. destruct (is_syncing (x_sys x)); auto.
Qed.

Lemma step_tr s e s' : step cfg s e = Some (Ok s') ->
  totalReleased (s_pbl s') = match e with EPopFront => S (totalReleased (s_pbl s)) | _ => totalReleased (s_pbl s) end.
Proof.
  intros H. pose proof (step_act _ _ _ _ H) as Ha. pose proof (act_rel _ _ _ Ha) as F. revert F.
  destruct e as [al| |index size|k blk seed|d| |t a]; cbn [act_of].
  - intros [_ [_ [_ F]]]. exact F.
  - intros [fb [rest [_ [_ [_ [_ F]]]]]]. exact F.
  - intros [_ [_ [_ F]]]. exact F.
  - destruct (nth_error _ _) as [[[tok sz]|]|]; intros [_ [_ [_ F]]]; exact F.
  - intros [_ [_ [_ F]]]. exact F.
  - intros [_ [_ [_ F]]]. exact F.
  - destruct t; [destruct (s_r s) as [| |[]]|destruct (s_p s) as [| | | | | | | |? []|]]; cbn; intros [_ [_ [_ F]]]; exact F.
Qed.

Lemma internal_act_tr s t a s' : step cfg s (EStep t a) = Some (Ok s') ->
  totalReleased (s_pbl s') = totalReleased (s_pbl s).
Proof. exact (step_tr s (EStep t a) s'). Qed.

Lemma q_nsy_step x1 x x' :
  (if is_syncing (x_sys x1) then x_nsy x = x_nsy x1 /\ s_p (x_sys x) = s_p (x_sys x1)
   else x_nsy x = (if is_syncing (x_sys x) then S (x_nsy x1) else x_nsy x1)) ->
  is_syncing (x_sys x) = false ->
  x_nsy x' = (if is_syncing (x_sys x') then S (x_nsy x) else x_nsy x) ->
  if is_syncing (x_sys x1) then x_nsy x' = x_nsy x1 /\ s_p (x_sys x') = s_p (x_sys x1)
  else x_nsy x' = (if is_syncing (x_sys x') then S (x_nsy x1) else x_nsy x1).
Proof.
  intros Q Hx Hsy. destruct (is_syncing (x_sys x1)) eqn:E1.
  - destruct Q as [_ Q]. unfold is_syncing in Hx, E1. rewrite Q in Hx. congruence.
  - rewrite Hx in Q. rewrite Hsy, Q. reflexivity.
Qed.

Lemma qtraj_step x1 x t x' : qtraj x1 x -> good (x_sys x) -> t_internal cfg (x_sys x) t = true ->
  tstep cfg t internal_ans x = Some (Ok x') -> qtraj x1 x'.
Proof.
  intros Q G Hi Ht. destruct (tstep_ok _ _ _ _ _ Ht) as [Hs [_ [_ Hsy]]].
  pose proof (good_inv1 _ _ _ _ _ _ G) as II.
  pose proof (internal_act_tr _ _ _ _ Hs) as Htr.
  destruct Q as [Q1 Q2 Q3 Q4 Q5 Q6 Q7 Q8 Q9].
  destruct t; cbn [step t_internal] in *.
  - pose proof (rstep_frame _ _ _ _ II Hs) as Ep. pose proof (rstep_cancel _ _ _ _ II Hs) as Ec.
    destruct (rstep_frame_t _ _ _ _ II Hs) as [El [_ En]].
    unfold is_syncing in *. constructor; unfold is_syncing; try congruence.
    + rewrite Ep, Hsy. exact Q5.
    + rewrite Ep. exact Q6.
    + rewrite Ep. exact Q7.
    + rewrite Ep. exact Q8.
    + rewrite Ep. exact Q9.
  - destruct (pstep_shape _ _ _ _ II Hs) as [Ec [En _]]. destruct (pstep_internal _ _ _ II Hi Hs) as [P Hl].
    assert (Hns : is_syncing (x_sys x) = false) by (unfold is_syncing; destruct P; reflexivity).
    constructor; try congruence.
    + exact (q_nsy_step x1 x x' Q5 Hns Hsy).
    + intros Hk. assert (s_p (x_sys x) = PNotify true) as Hpc.
      { revert Hk. destruct P; intros [Hk|[f0 Hk]]; try discriminate Hk. inversion Hk. reflexivity. }
      destruct (Q6 (or_introl Hpc)) as [E|E]; left; congruence.
    + intros Hk. exfalso. revert Hk. destruct P; cbn; discriminate.
    + intros Hk. rewrite <- (Q8 Hk) in Hk. exfalso. revert Hk. destruct P; cbn; discriminate.
    + intros k Hk. destruct (Q9 k Hk) as [E|E].
      * right. rewrite E in P. inversion P. congruence.
      * exfalso. unfold is_syncing in Hns. rewrite E in Hns. discriminate Hns.
Qed.

Lemma quiesce_traj f rw x1 x2 : good (x_sys x1) -> quiesce cfg f rw x1 = Ok x2 -> qtraj x1 x2.
Proof.
  intros G H.
  destruct (quiesce_ind cfg alloc oldest init t0 (qtraj x1)
              (fun x t x' Q Gx Hi Ht => qtraj_step x1 x t x' Q Gx Hi Ht) f rw x1 x2 G (qtraj_refl x1) H) as [Q _].
  exact Q.
Qed.

End Tri.
