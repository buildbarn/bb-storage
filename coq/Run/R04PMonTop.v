(** C04P, "the monitor is silent on the model" — part 4: the model's
    allocator accounting against the abstract accounting, one operation, the
    whole run, and the theorem [mon04P_silent_on_model_h]. *)
From Coq Require Import List NArith ZArith Bool Arith Lia Permutation.
From BBS Require Import Common.Sx Persist.PBL Persist.PBLProofs Persist.Syncer Persist.SyncerProofs
  Persist.LiveActs Persist.LiveCover Persist.LiveRelease Run.R07 Run.R04P Run.R07MonBase Run.R07MonOps
  Run.R07MonC123 Run.R07MonCov1 Run.R07MonCov2 Run.R07MonOps2 Run.R07MonCov3 Run.R07MonTop
  Run.R04PMonAcc Run.R04PMonTraj Run.R04PMonOps.
Import ListNotations.
Local Open Scope nat_scope.

Definition apbl (a : ast) : pbl := s_pbl (x_sys (a_x a)).

Record arel (a : ast) (c : acc) : Prop := mkArel {
  ar_ids : length (a_ids a) = length (blocks (apbl a));
  ar_listed : c_listed c = combine (a_ids a) (offs (apbl a));
  ar_popped : c_rel c ++ c_pend c = a_popped a;
  ar_nrel : length (c_rel c) = length (releasedLog (apbl a));
  ar_pend : map snd (c_pend c) = map fst (toRelease (apbl a));
  ar_free : c_free c = a_free a;
  ar_wr : c_wr c = match writing_state (x_sys (a_x a)) with
                   | Some st => Some (x_nwr (a_x a), releasing (apbl a), st_regs st)
                   | None => None
                   end;
  ar_next : forall id, In id (map fst (a_popped a) ++ a_ids a) -> id < a_next a
}.

Lemma combine_app {A B} (l1 l1' : list A) (l2 l2' : list B) : length l1 = length l2 ->
  combine (l1 ++ l1') (l2 ++ l2') = combine l1 l2 ++ combine l1' l2'.
Proof.
  revert l2. induction l1 as [|a r IH]; intros [|b r2] H; try discriminate; cbn; [reflexivity|].
  rewrite IH by (cbn in H; lia). reflexivity.
Qed.

Lemma map_fst_combine {A B} (l1 : list A) (l2 : list B) : length l1 = length l2 -> map fst (combine l1 l2) = l1.
Proof. revert l2. induction l1 as [|a r IH]; intros [|b r2] H; try discriminate; cbn; [reflexivity|]. rewrite IH by (cbn in H; lia). reflexivity. Qed.

Lemma map_snd_combine {A B} (l1 : list A) (l2 : list B) : length l1 = length l2 -> map snd (combine l1 l2) = l2.
Proof. revert l2. induction l1 as [|a r IH]; intros [|b r2] H; try discriminate; cbn; [reflexivity|]. rewrite IH by (cbn in H; lia). reflexivity. Qed.

Lemma offs_len p : length (offs p) = length (blocks p).
Proof. unfold offs. apply map_length. Qed.

Lemma skip_first {A} (l1 l2 : list A) k : skipn (length l1) (firstn (length l1 + k) (l1 ++ l2)) = firstn k l2.
Proof.
  rewrite firstn_app, firstn_all2 by lia. replace (length l1 + k - length l1) with k by lia.
  rewrite skipn_app, skipn_all, Nat.sub_diag. reflexivity.
Qed.

Lemma writer_writing s t : writer s = Some t -> exists st, writing_state s = Some st.
Proof.
  intros H. destruct (writer_cases _ _ H) as [[_ [st Er]]|[_ [k [st Ep]]]]; unfold writing_state.
  - rewrite Er. eauto.
  - rewrite Ep. destruct (s_r s) as [| |[]]; eauto.
Qed.

Lemma writing_writer s st : writing_state s = Some st -> exists t, writer s = Some t.
Proof.
  unfold writing_state, writer. destruct (s_r s) as [| |[]]; try (intros H; eauto; fail);
    destruct (s_p s) as [| | | | | | | |k []|]; intros H; try discriminate; eauto.
Qed.

Section Top4.
Variable cfg : config.
Variable alloc : loc -> Z -> bool.
Variable oldest : N.
Variable init : list bstate.
Variable t0 : N.
Notation good := (good cfg alloc oldest init t0).

Definition op_post nreg m a (r : outcome (ast * sx * list sx)) : Prop :=
  exists a1 res ev1 c1, r = Ok (a1, res, ev1) /\ good (x_sys (a_x a1)) /\ arel a1 c1
    /\ length (releasedLog (apbl a1)) = length (releasedLog (apbl a)) /\ x_nwr (a_x a1) = x_nwr (a_x a)
    /\ ((wwritten (x_sys (a_x a1)) = false /\ prel nreg (fold_left pm_event ev1 m) c1) \/
        (wwritten (x_sys (a_x a1)) = true /\ exists w, prelD nreg (fold_left pm_event ev1 m) c1 (releasing (apbl a1)) w)).

Lemma op_sim nreg m a c op : prel nreg m c -> arel a c -> good (x_sys (a_x a)) -> quiet cfg (x_sys (a_x a)) ->
  op_post nreg m a (do_op_a cfg op a).
Proof.
  intros P R G Q. pose proof (good_inv1 _ _ _ _ _ _ G) as II.
  pose proof (quiet_not_wwritten _ _ _ _ _ _ G Q) as Hnw.
  assert (Hsame : forall r0 : sx, op_post nreg m a (Ok (a, r0, []))).
  { intros r0. exists a, r0, [], c. split; [reflexivity|]. split; [exact G|]. split; [exact R|].
    split; [reflexivity|]. split; [reflexivity|]. left. split; [exact Hnw|exact P]. }
  destruct R as [R1 R2 R3 R4 R5 R6 R7 R8]. unfold op_post, apbl in *.
  destruct (do_op_a_cases cfg op a) as [[Hc ->]|[[Hc ->]|[N3 [N4 ->]]]].
  - (* PopFront *)
    unfold opa3. destruct (blocks (s_pbl (x_sys (a_x a)))) as [|b rest] eqn:Eb.
    { apply Hsame. }
    destruct (a_ids a) as [|id ids'] eqn:Ei; [cbn in R1; discriminate|].
    destruct (pop_front_inv _ (proj1 II)) as [p' [Hpop _]]; [rewrite Eb; discriminate|].
    unfold env_step. cbn [step]. rewrite Eb, Hpop.
    destruct (pop_fields _ _ _ _ Eb Hpop) as [Fb [_ [_ [Ft [_ [_ [Ftr [Frg [Frl _]]]]]]]]].
    assert (Hs : step cfg (x_sys (a_x a)) EPopFront = Some (Ok (x_sys (x_with_sys (a_x a) (with_pbl (x_sys (a_x a)) p'))))).
    { cbn [step]. rewrite Eb, Hpop. reflexivity. }
    assert (El : c_listed c = (id, fst (b_loc b)) :: combine ids' (offs p')).
    { rewrite R2. unfold offs. rewrite Eb, Fb. reflexivity. }
    eexists _, _, _, (mkAcc (combine ids' (offs p')) (c_rel c) (c_pend c ++ [(id, fst (b_loc b))]) (c_free c) (c_wr c)).
    split; [reflexivity|]. cbn [a_x]. split; [eapply step_good; eauto|]. split; [|split; [|split]].
    + constructor; unfold apbl; cbn [a_x a_ids a_popped a_free a_next c_listed c_rel c_pend c_free c_wr x_with_sys x_sys s_pbl with_pbl
                                        x_nwr s_r s_p writing_state]; auto.
      * rewrite Fb. cbn in R1. lia.
      * rewrite app_assoc, R3. reflexivity.
      * rewrite Frl. exact R4.
      * rewrite Ftr, !map_app, R5. reflexivity.
      * rewrite R7, Frg. unfold writing_state. reflexivity.
      * intros id0 Hi. apply R8. rewrite map_app in Hi. cbn [map fst] in Hi.
        apply in_app_or in Hi. apply in_or_app. destruct Hi as [Hi|Hi].
        -- apply in_app_or in Hi. destruct Hi as [Hi|[<-|[]]]; [left; exact Hi|right; left; reflexivity].
        -- right. right. exact Hi.
    + unfold apbl. cbn. rewrite Frl. reflexivity.
    + reflexivity.
    + left. split.
      * unfold wwritten in *. cbn. exact Hnw.
      * cbn [fold_left]. apply (ev_pop nreg m c id (fst (b_loc b)) (combine ids' (offs p')) P El).
  - (* PushBack *)
    unfold opa4. cbv zeta.
    destruct (sx_bool (sx_nth op 1)); [|unfold push_back; destruct (closedForWriting _); cbn; apply Hsame].
    destruct (a_free a) as [|f fr] eqn:Ef; [unfold push_back; destruct (closedForWriting _); cbn; apply Hsame|].
    unfold push_back at 1. destruct (closedForWriting (s_pbl (x_sys (a_x a)))) eqn:Ec; [cbn; apply Hsame|].
    cbn [snd]. unfold env_step. cbn [step].
    set (p' := fst (push_back (Some (f, 100%Z)) (s_pbl (x_sys (a_x a))))).
    assert (Ep' : p' = set_blocks (s_pbl (x_sys (a_x a))) (blocks (s_pbl (x_sys (a_x a))) ++ [mkBinfo (f, 100%Z) 0 0 0 0])).
    { unfold p', push_back. rewrite Ec. reflexivity. }
    assert (Hs : step cfg (x_sys (a_x a)) (EPushBack (Some (f, 100%Z))) = Some (Ok (with_pbl (x_sys (a_x a)) p'))) by reflexivity.
    eexists _, _, _, (mkAcc (c_listed c ++ [(a_next a, f)]) (c_rel c) (c_pend c) fr (c_wr c)).
    split; [reflexivity|]. cbn [a_x x_set_nalloc x_sys x_with_sys]. split; [eapply step_good; eauto|]. split; [|split; [|split]].
    + constructor; unfold apbl; cbn [a_x a_ids a_popped a_free a_next c_listed c_rel c_pend c_free c_wr x_set_nalloc x_with_sys x_sys s_pbl with_pbl
                                        x_nwr s_r s_p tl]; fold p'; rewrite ?Ep'; cbn [blocks set_blocks releasedLog toRelease releasing]; auto.
      * rewrite !app_length. cbn. lia.
      * unfold offs at 1. cbn [blocks set_blocks]. rewrite map_app. cbn [map b_loc fst].
        rewrite R2. fold (offs (s_pbl (x_sys (a_x a)))). rewrite combine_app by (rewrite offs_len; exact R1). reflexivity.
      * intros id0 Hi. apply in_app_or in Hi. destruct Hi as [Hi|Hi].
        -- specialize (R8 id0 (in_or_app _ _ _ (or_introl Hi))). lia.
        -- apply in_app_or in Hi. destruct Hi as [Hi|[<-|[]]]; [|lia]. specialize (R8 id0 (in_or_app _ _ _ (or_intror Hi))). lia.
    + unfold apbl. cbn. fold p'. rewrite Ep'. reflexivity.
    + reflexivity.
    + left. split; [unfold wwritten in *; cbn; exact Hnw|]. cbn [fold_left fst].
      apply (ev_push nreg m c (a_next a) f fr P); [rewrite R6; first [exact Ef|reflexivity]|].
      intros Hi. rewrite app_assoc, map_app, R3, R2, map_fst_combine in Hi by (rewrite offs_len; exact R1).
      specialize (R8 _ Hi). lia.
  - (* the other operations *)
    unfold opaX. cbv zeta.
    destruct (Z.eq_dec (tag op) 6) as [E6|N6].
    + rewrite E6. cbn [Z.eqb Pos.eqb]. destruct (writer (x_sys (a_x a))) as [t|] eqn:Ew.
      * destruct (write_completes _ _ _ _ _ op (a_x a) t G E6 Ew) as [x1 [res [Hd [G1 [Hp [Hn [Hws Hww]]]]]]].
        rewrite Hd. destruct (writer_writing _ _ Ew) as [st Hst]. rewrite Hst in R7.
        eexists _, _, _, (mkAcc (c_listed c) (c_rel c) (c_pend c) (c_free c) None).
        split; [reflexivity|]. cbn [a_x]. split; [exact G1|]. split; [|split; [|split]].
        -- constructor; unfold apbl; cbn [a_x a_ids a_popped a_free a_next c_listed c_rel c_pend c_free c_wr]; rewrite ?Hp; auto.
           rewrite Hws. reflexivity.
        -- unfold apbl. cbn. rewrite Hp. reflexivity.
        -- exact Hn.
        -- cbn [fold_left]. rewrite Hww. destruct (sx_bool (sx_nth op 1)).
           ++ right. split; [reflexivity|]. unfold apbl. cbn [a_x]. rewrite Hp. eapply ev_done_ok; eauto.
           ++ left. split; [reflexivity|]. eapply ev_done_fail; eauto.
      * rewrite do_op_at, E6. unfold op_at, op6. cbv zeta. rewrite Ew. unfold d_noop. cbv iota beta.
        assert (Heta : mkAst (a_x a) (a_free a) (a_ids a) (a_popped a) (a_next a) = a) by (destruct a; reflexivity).
        rewrite Heta. apply Hsame.
    + assert (Z.eqb (tag op) 6 = false) as -> by (apply Z.eqb_neq; exact N6).
      destruct (do_op_tri _ _ _ _ _ op (a_x a) G) as [x1 [res [Hd T]]]. rewrite Hd.
      destruct (other_ops _ _ _ _ _ op (a_x a) x1 res G Q N3 N4 N6 T) as [Ho [Hr [Hw [Hww Hn]]]].
      unfold rfields in Hr. injection Hr as Hr1 Hr2 Hr3.
      exists (mkAst x1 (a_free a) (a_ids a) (a_popped a) (a_next a)), res, [], c.
      split; [reflexivity|]. cbn [a_x]. split; [eapply tri_good; eauto|]. split; [|split; [|split]].
      * constructor; unfold apbl; cbn [a_x a_ids a_popped a_free a_next]; auto.
        -- rewrite <- offs_len, Ho, offs_len. exact R1.
        -- rewrite Ho. exact R2.
        -- rewrite Hr1. exact R4.
        -- rewrite Hr2. exact R5.
        -- rewrite Hw, Hn, Hr3. exact R7.
      * unfold apbl. cbn. rewrite Hr1. reflexivity.
      * exact Hn.
      * left. split; [congruence|exact P].
Qed.

Definition rel_ev (p : nat * Z) : sx := L [A 2%Z; of_nat (fst p); A (snd p); A 0%Z].

Lemma fold_releases nreg : forall k m c w, prelD nreg m c k w ->
  prelD nreg (fold_left pm_event (map rel_ev (firstn k (c_pend c))) m)
        (mkAcc (c_listed c) (c_rel c ++ firstn k (c_pend c)) (skipn k (c_pend c))
               (c_free c ++ map snd (firstn k (c_pend c))) None) 0 w.
Proof.
  induction k as [|k IH]; intros m c w D.
  - cbn [firstn skipn map fold_left]. rewrite !app_nil_r. destruct c. cbn. pose proof (d_wr _ _ _ _ _ D) as Hw. cbn in Hw. subst. exact D.
  - pose proof (d_w _ _ _ _ _ D) as [Hk _]. destruct (c_pend c) as [|[id off] pend'] eqn:Ep; [cbn in Hk; lia|].
    pose proof (ev_release nreg m c k w id off pend' D Ep) as D'.
    specialize (IH _ _ _ D'). cbn [c_listed c_rel c_pend c_free] in IH.
    cbn [firstn skipn map fold_left rel_ev fst snd]. rewrite <- !app_assoc in IH. cbn [app] in IH. exact IH.
Qed.

Lemma step_sim nreg m a c op h :
  prel nreg m c -> arel a c -> good (x_sys (a_x a)) -> quiet cfg (x_sys (a_x a)) ->
  exists a1 res ev1 x2, do_op_a cfg op a = Ok (a1, res, ev1) /\ quiesce cfg 64 h (a_x a1) = Ok x2 /\
    let a2ev := after_quiesce (length (releasedLog (apbl a))) (x_nwr (a_x a)) a1 x2 in
    exists c2, prel nreg (pm_step nreg m (enc_step (enc_obs res x2) (fst a2ev) (ev1 ++ snd a2ev))) c2
               /\ arel (fst a2ev) c2 /\ good (x_sys (a_x (fst a2ev))) /\ quiet cfg (x_sys (a_x (fst a2ev))).
Proof.
  intros P R G Q.
  destruct (op_sim nreg m a c op P R G Q) as [a1 [res [ev1 [c1 [Hd [G1 [R1 [Hrl [Hnw Hm]]]]]]]]].
  destruct (quiesce_total _ _ _ _ _ h (a_x a1) G1) as [x2 [Hq [G2 Q2]]].
  exists a1, res, ev1, x2. split; [exact Hd|]. split; [exact Hq|].
  pose proof (quiesce_rtj _ _ _ _ _ _ _ _ _ G1 Hq) as [J1 J2].
  pose proof (quiet_not_wwritten _ _ _ _ _ _ G2 Q2) as Hnw2.
  pose proof (good_inv1 _ _ _ _ _ _ G1) as II1.
  destruct R1 as [A1 A2 A3 A4 A5 A6 A7 A8]. unfold apbl in *.
  set (k := k_of (a_x a1)).
  (* the monitor after ev1: k releases are due *)
  assert (Hk : k <= length (c_pend c1)).
  { unfold k, k_of. destruct (wwritten (x_sys (a_x a1))); [|lia].
    rewrite <- (map_length snd), A5, map_length. apply (i_rel _ (proj1 II1)). }
  remember (fold_left pm_event (map rel_ev (firstn k (c_pend c1))) (fold_left pm_event ev1 m)) as m1' eqn:Em1.
  remember (mkAcc (c_listed c1) (c_rel c1 ++ firstn k (c_pend c1)) (skipn k (c_pend c1))
                  (c_free c1 ++ map snd (firstn k (c_pend c1))) (if wwritten (x_sys (a_x a1)) then None else c_wr c1))
    as c1' eqn:Ec1.
  assert (P1' : prel nreg m1' c1').
  { rewrite Em1, Ec1. destruct Hm as [[Hw Pm]|[Hw [w Dm]]]; unfold k, k_of; rewrite Hw.
    - cbn [firstn skipn map fold_left]. rewrite !app_nil_r. destruct c1. exact Pm.
    - eapply prelD_done. apply fold_releases. exact Dm. }
  assert (U : rel_upto (a_x a1) x2 k) by (destruct J2 as [[B1 _]|[[_ [U _]]|[_ [U _]]]]; [congruence|exact U..]).
  destruct U as [U1 U2].
  (* the releases reported by after_quiesce *)
  assert (Hlen2 : length (releasedLog (s_pbl (x_sys x2))) = length (c_rel c1) + k).
  { assert (Htl : length (toRelease (s_pbl (x_sys (a_x a1)))) = length (c_pend c1))
      by (rewrite <- (map_length fst (toRelease _)), <- A5, map_length; reflexivity).
    rewrite U1, app_length, firstn_length, Htl, A4. lia. }
  assert (Hnewrel : skipn (length (releasedLog (s_pbl (x_sys (a_x a))))) (firstn (length (releasedLog (s_pbl (x_sys x2)))) (a_popped a1))
                    = firstn k (c_pend c1)).
  { rewrite <- Hrl, <- A4, Hlen2, <- A3. apply skip_first. }
  unfold after_quiesce. rewrite Hnewrel. fold rel_ev.
  (* the start of a state write *)
  assert (Hww1 : wwritten (x_sys (a_x a1)) = true -> writing_state (x_sys (a_x a1)) = None).
  { intros Hw. destruct Hm as [[Hw' _]|[_ [w Dm]]]; [congruence|]. pose proof (d_wr _ _ _ _ _ Dm) as Hn. rewrite A7 in Hn.
    destruct (writing_state (x_sys (a_x a1))); [discriminate|reflexivity]. }
  assert (Hwr1' : c_wr c1' = match writing_state (x_sys (a_x a1)) with
                             | Some st => Some (x_nwr (a_x a1), releasing (s_pbl (x_sys (a_x a1))), st_regs st) | None => None end).
  { rewrite Ec1. cbn [c_wr]. destruct (wwritten (x_sys (a_x a1))) eqn:Ew; [rewrite (Hww1 eq_refl); reflexivity|exact A7]. }
  assert (Hk0 : writing_state (x_sys (a_x a1)) <> None -> k = 0).
  { intros Hn. unfold k, k_of. destruct (wwritten (x_sys (a_x a1))) eqn:Ew; [exfalso; apply Hn; apply Hww1; reflexivity|reflexivity]. }
  assert (Hlisted : map snd (c_listed c1) = offs (s_pbl (x_sys x2))).
  { rewrite A2, map_snd_combine by (rewrite offs_len; exact A1). symmetry. exact J1. }
  assert (Hpend2 : map snd (skipn k (c_pend c1)) = map fst (toRelease (s_pbl (x_sys x2)))).
  { rewrite U2, <- !skipn_map, A5. reflexivity. }
  assert (Harel_base : forall c2, c_listed c2 = c_listed c1 -> c_rel c2 = c_rel c1 ++ firstn k (c_pend c1) ->
            c_pend c2 = skipn k (c_pend c1) -> c_free c2 = c_free c1 ++ map snd (firstn k (c_pend c1)) ->
            c_wr c2 = match writing_state (x_sys x2) with
                      | Some st => Some (x_nwr x2, releasing (s_pbl (x_sys x2)), st_regs st) | None => None end ->
            arel (mkAst x2 (a_free a1 ++ map snd (firstn k (c_pend c1))) (a_ids a1) (a_popped a1) (a_next a1)) c2).
  { intros c2 E1 E2 E3 E4 E5. constructor; unfold apbl; cbn [a_x a_ids a_popped a_free a_next]; auto.
    - rewrite <- offs_len, J1, offs_len. exact A1.
    - rewrite E1, J1. exact A2.
    - rewrite E2, E3, <- app_assoc, firstn_skipn. exact A3.
    - rewrite E2, app_length, firstn_length. lia.
    - rewrite E3. exact Hpend2.
    - rewrite E4, A6. reflexivity. }
  cbn [fst snd].
  unfold pm_step, enc_step.
  match goal with |- context [sx_list (sx_nth (L [?o; ?n; L ?evs]) 2)] =>
    change (sx_list (sx_nth (L [o; n; L evs]) 2)) with evs;
    change (sx_nat (sx_nth (L [o; n; L evs]) 1)) with (sx_nat n) end.
  rewrite sx_nat_of_nat. cbn [a_free]. rewrite !fold_left_app. rewrite <- Em1.
  destruct J2 as [[B1 _]|[[_ [_ [Hn2 [Hw2 Hr2]]]]|[_ [_ [Hn2 [Hw1 [st [Hw2 [Hregs Hr2]]]]]]]]]; [congruence| |].
  - (* no new state write *)
    assert ((x_nwr (a_x a) <? x_nwr x2) = false) as -> by (apply Nat.ltb_ge; lia).
    cbn [fold_left]. exists c1'. split; [|split; [|auto]].
    + assert (length (a_free a1 ++ map snd (firstn k (c_pend c1))) = length (c_free c1')) as ->
        by (rewrite Ec1; cbn [c_free]; rewrite A6; reflexivity).
      apply q_check. exact P1'.
    + apply Harel_base; [rewrite Ec1; reflexivity|rewrite Ec1; reflexivity|rewrite Ec1; reflexivity|rewrite Ec1; reflexivity|].
      rewrite Hwr1', Hw2, Hn2. destruct (writing_state (x_sys (a_x a1))) as [st|] eqn:Ew; [|reflexivity].
      rewrite Hr2 by discriminate. reflexivity.
  - (* a state write started *)
    assert ((x_nwr (a_x a) <? x_nwr x2) = true) as -> by (apply Nat.ltb_lt; lia).
    rewrite Hw2. cbn [fold_left].
    assert (Hwn : c_wr c1' = None) by (rewrite Hwr1', Hw1; reflexivity).
    pose proof (ev_start nreg m1' c1' (x_nwr x2) (of_N (fst st)) (snd st) P1' Hwn) as P2.
    assert (Hr : forall r, In r (map (fun b => fst (bs_loc b)) (snd st)) -> In r (map snd (c_listed c1'))).
    { intros r Hi. rewrite Ec1. cbn [c_listed]. rewrite Hlisted. apply Hregs. exact Hi. }
    specialize (P2 Hr).
    eexists. split; [|split; [|auto]].
    + match goal with |- prel _ (pm_quiescent _ _ ?n) _ =>
        replace n with (length (c_free (mkAcc (c_listed c1') (c_rel c1') (c_pend c1') (c_free c1')
                          (Some (x_nwr x2, length (c_pend c1'), map (fun b => fst (bs_loc b)) (snd st)))))) end.
      * apply q_check. exact P2.
      * cbn [c_free]. rewrite Ec1. cbn [c_free]. rewrite A6. reflexivity.
    + apply Harel_base; cbn [c_listed c_rel c_pend c_free c_wr];
        [rewrite Ec1; reflexivity|rewrite Ec1; reflexivity|rewrite Ec1; reflexivity|rewrite Ec1; reflexivity|].
      rewrite Ec1. cbn [c_pend]. rewrite Hw2, Hr2. unfold st_regs. rewrite <- (map_length fst (toRelease _)), <- Hpend2, map_length. reflexivity.
Qed.

End Top4.

Lemma NoDup_app_intro {A} (l1 l2 : list A) : NoDup l1 -> NoDup l2 -> (forall x, In x l1 -> ~ In x l2) -> NoDup (l1 ++ l2).
Proof.
  induction l1 as [|a r IH]; intros H1 H2 H; [exact H2|]. cbn. inversion H1; subst. constructor.
  - intros Hi. apply in_app_or in Hi. destruct Hi as [Hi|Hi]; [contradiction|]. apply (H a); [left; reflexivity|exact Hi].
  - apply IH; auto. intros x Hx. apply H. right. exact Hx.
Qed.

Lemma filter_split_length {A} (f : A -> bool) l :
  length (filter f l) + length (filter (fun x => negb (f x)) l) = length l.
Proof. induction l as [|a r IH]; [reflexivity|]. cbn. destruct (f a); cbn; lia. Qed.

Lemma region_offs_nodup n : NoDup (region_offs n) /\ length (region_offs n) = n.
Proof.
  unfold region_offs. split; [|rewrite map_length, seq_length; reflexivity].
  apply FinFun.Injective_map_NoDup; [|apply seq_NoDup]. intros x y H. lia.
Qed.

Section Final.
Variable inp : sx.
Notation cfg := (cfg_i inp).
Notation good := (good (cfg_i inp) (alloc_i inp) (oldest_i inp) (init_i inp) (t0_i inp)).

Definition nreg_i : nat := sx_nat (sx_nth (sx_nth inp 2) 0).
Definition offs0_i : list Z := offs (p0_i inp).

(** the restored blocks live at pairwise distinct regions of the device *)
Definition dom04P : bool := nodupz offs0_i && forallb (fun o => zmem o (region_offs nreg_i)) offs0_i.

Lemma run_sim_a ops : forall hints m a c, prel nreg_i m c -> arel a c -> good (x_sys (a_x a)) -> quiet cfg (x_sys (a_x a)) ->
  exists r, run_ops_a cfg ops hints a = Ok r /\ exists c', prel nreg_i (fold_left (pm_step nreg_i) r m) c'.
Proof.
  induction ops as [|op ops IH]; intros hints m a c P R G Q.
  - exists []. split; [reflexivity|]. exists c. exact P.
  - cbn [run_ops_a]. cbv zeta.
    match goal with |- context [quiesce _ 64 ?h _] =>
      destruct (step_sim _ _ _ _ _ nreg_i m a c op h P R G Q) as [a1 [res [ev1 [x2 [Hd [Hq Hrest]]]]]] end.
    rewrite Hd, Hq. unfold apbl in Hrest. cbv zeta in Hrest.
    destruct (after_quiesce (length (releasedLog (s_pbl (x_sys (a_x a))))) (x_nwr (a_x a)) a1 x2) as [a2 ev2].
    cbn [fst snd] in Hrest. destruct Hrest as [c2 [P2 [R2 [G2 Q2]]]].
    destruct (IH (tl hints) _ a2 c2 P2 R2 G2 Q2) as [r [Hr [c' Hc']]]. rewrite Hr.
    eexists. split; [reflexivity|]. exists c'. cbn [fold_left]. exact Hc'.
Qed.

(** the monitor is silent on the model (Props/C04P.v: [mon04P_silent_on_model]) *)
Theorem mon04P_silent_on_model_h hints : dom04P = true -> mon04P inp (run04Ph inp hints) = [].
Proof.
  intros Hd. unfold dom04P in Hd. apply andb_true_iff in Hd. destruct Hd as [Hd1 Hd2]. apply nodupz_spec in Hd1.
  unfold run04Ph, init_a. cbv zeta. change (cfg_of (sx_nth inp 0)) with cfg.
  assert (Ebl : s_pbl (x_sys (init_x (sx_nth inp 0))) = p0_i inp) by (rewrite init_x_eq; reflexivity).
  rewrite Ebl. fold (offs (p0_i inp)). fold offs0_i. fold nreg_i. cbn [a_x].
  destruct (init_state inp true) as [x0 [Hq [R0 P0]]]. rewrite Hq. cbn [a_x a_free a_ids a_popped a_next].
  set (ids := seq 0 (length (blocks (p0_i inp)))).
  set (free := filter (fun o => negb (zmem o offs0_i)) (region_offs nreg_i)).
  set (a1 := mkAst x0 free ids [] (length (blocks (p0_i inp)))).
  set (c0 := mkAcc (combine ids offs0_i) [] [] free None).
  assert (Hlen : length ids = length offs0_i).
  { unfold ids, offs0_i. rewrite seq_length, offs_len. reflexivity. }
  destruct (region_offs_nodup nreg_i) as [Hrn Hrl].
  assert (Hsub : forall o, In o offs0_i -> In o (region_offs nreg_i)).
  { intros o Ho. rewrite forallb_forall in Hd2. apply zmem_in. apply Hd2. exact Ho. }
  assert (Hnd : NoDup (free ++ offs0_i)).
  { apply NoDup_app_intro; [apply NoDup_filter; exact Hrn|exact Hd1|].
    intros x Hx Hi. unfold free in Hx. apply filter_In in Hx. destruct Hx as [_ Hx].
    apply zmem_in in Hi. rewrite Hi in Hx. discriminate. }
  assert (Hcount : length free + length offs0_i = nreg_i).
  { rewrite <- Hrl. rewrite <- (filter_split_length (fun o => negb (zmem o offs0_i)) (region_offs nreg_i)). fold free. f_equal.
    symmetry. apply Permutation_length. apply NoDup_Permutation; [apply NoDup_filter; exact Hrn|exact Hd1|].
    intros x. rewrite filter_In. split.
    - intros [_ Hx]. apply zmem_in. destruct (zmem x offs0_i); [reflexivity|discriminate].
    - intros Hx. split; [apply Hsub; exact Hx|]. apply zmem_in in Hx. rewrite Hx. reflexivity. }
  assert (P : prel nreg_i
                (pm_quiescent nreg_i
                   (fold_left pm_event (map (fun p => L [A 0%Z; of_nat (fst p); A (snd p)]) (combine ids offs0_i)) pm_init)
                   (length free)) c0).
  { apply (q_check nreg_i _ c0). apply init_prel.
    - rewrite map_fst_combine by exact Hlen. apply seq_NoDup.
    - rewrite map_snd_combine by exact Hlen. exact Hnd.
    - rewrite combine_length, Hlen, Nat.min_id. exact Hcount. }
  destruct P0 as [Q1 Q2 Q3 Q3' Q4 Q5 Q6 Q7 Q8 Q9].
  assert (R : arel a1 c0).
  { destruct (p0_facts (alloc_i inp) (oldest_i inp) (init_i inp)) as [F1 [_ [F3 _]]].
    constructor; unfold apbl; cbn [a1 c0 a_x a_ids a_popped a_free a_next c_listed c_rel c_pend c_free c_wr]; rewrite ?Q1; auto.
    - unfold ids. apply seq_length.
    - fold (p0_i inp) in F3. rewrite F3. reflexivity.
    - fold (p0_i inp) in F1. rewrite F1. reflexivity.
    - unfold writing_state. destruct Q7 as [E|E]; rewrite E; destruct Q6 as [E'|[E'|E']]; rewrite E'; reflexivity.
    - intros id Hi. cbn [map app] in Hi. unfold ids in Hi. apply in_seq in Hi. lia. }
  destruct (run_sim_a (sx_list (sx_nth inp 1)) hints _ a1 c0 P R (r1_good _ _ _ _ _ _ _ R0) (r1_quiet _ _ _ _ _ _ _ R0))
    as [r [Hr [c' Pc']]].
  fold ids. fold free. fold a1. rewrite Hr.
  unfold mon04P. cbn [is_marker]. cbv zeta.
  assert (N0 : forall a l, sx_nth (L (a :: l)) 0 = a) by reflexivity.
  assert (N1 : forall a b l, sx_nth (L (a :: b :: l)) 1 = b) by reflexivity.
  assert (NL : forall l, sx_list (L l) = l) by reflexivity.
  rewrite !N0, !N1, !NL, sx_nat_of_nat. fold nreg_i.
  rewrite (p_viol _ _ _ Pc'). reflexivity.
Qed.

End Final.
