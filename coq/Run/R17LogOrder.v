(** C17 / C17L: the log clauses do not depend on the order in which the log
    lines of different callers are written between two quiescent points.

    The model emits the events of one atomic step contiguously ([tlog]); the
    harness's goroutines write their own lines, so when one caller's
    lock-protected section wakes another, the lines the two write next may
    appear in either order.  Start events are written by the scheduler at
    quiescent points, so no line moves across a start event, and every
    caller's own lines keep their order.  [same_run lg lg'] captures exactly
    that (same per-caller subsequences; start events at the same positions
    with the same per-caller counts before them); it is reflexive, transitive
    and contains every swap of two adjacent non-start lines of different
    callers.  Clauses 24, 25 and 27 are invariant under it. *)
From Coq Require Import List ZArith NArith Bool Arith Lia.
From BBS Require Import Common.Sx Common.ListX Run.MonSilentSx Compose.ExistenceCache Compose.Replicators
  Compose.ReplEntry Compose.EventLog Run.R17Conc Run.R17L Run.R17LogBase Run.R17LogEntry.
Import ListNotations.
Local Open Scope nat_scope.

Definition byc (j : nat) (x : sx) : bool := Nat.eqb (lg_caller x) j.
Definition proj (j : nat) (lg : list sx) : list sx := filter (byc j) lg.
Definition cnt (j n : nat) (lg : list sx) : nat := length (proj j (firstn n lg)).
Lemma byc_self e : byc (lg_caller e) e = true.
Proof. unfold byc. apply Nat.eqb_refl. Qed.

Definition is_start_ev (x : sx) : bool := Z.eqb (lg_kind x) 0.

Record same_run (lg lg' : list sx) : Prop := mk_same_run {
  sr_proj : forall j, proj j lg' = proj j lg;
  sr_fwd : forall p x, nth_error lg p = Some x -> is_start_ev x = true ->
             nth_error lg' p = Some x /\ forall j, cnt j p lg' = cnt j p lg;
  sr_bwd : forall p x, nth_error lg' p = Some x -> is_start_ev x = true -> nth_error lg p = Some x }.

Lemma same_run_refl lg : same_run lg lg.
Proof. constructor; auto. Qed.

Lemma same_run_trans a b c : same_run a b -> same_run b c -> same_run a c.
Proof.
  intros [P1 F1 B1] [P2 F2 B2]. constructor.
  - intros j. rewrite P2. apply P1.
  - intros p x Hx Hs. destruct (F1 p x Hx Hs) as [H1 C1]. destruct (F2 p x H1 Hs) as [H2 C2].
    split; [exact H2|]. intros j. rewrite C2. apply C1.
  - intros p x Hx Hs. apply B1; [|exact Hs]. apply B2; assumption.
Qed.

Lemma same_run_in lg lg' x : same_run lg lg' -> (In x lg' <-> In x lg).
Proof.
  intros [P _ _]. specialize (P (lg_caller x)). unfold proj in P.
  assert (E : forall l, In x l <-> In x (filter (byc (lg_caller x)) l)).
  { intros l. rewrite filter_In, byc_self. tauto. }
  rewrite (E lg'), (E lg), P. tauto.
Qed.

(** * [justified_after] in terms of per-caller subsequences and counts *)
Lemma iw_firstn p l : forall n k,
  filter p (firstn k l) = [] <-> match index_where p l n with Some nx => n + k <= nx | None => True end.
Proof.
  induction l as [|x r IH]; intros n k.
  - rewrite firstn_nil. cbn. tauto.
  - destruct k as [|k']; cbn [firstn filter index_where].
    + destruct (p x); [split; [lia|reflexivity]|].
      destruct (index_where p r (S n)) as [nx|] eqn:E; [|tauto]. apply iw_range in E. split; [lia|reflexivity].
    + destruct (p x).
      * split; [discriminate|lia].
      * rewrite (IH (S n) k'). destruct (index_where p r (S n)); [|tauto]. split; lia.
Qed.

Lemma ja_decomp d st lg : forall pos, justified_after d st lg pos = true <->
  exists l1 e l2, lg = l1 ++ e :: l2 /\ justifies d e = true /\
    match index_where (byc (lg_caller e)) l2 (S (pos + length l1)) with Some nx => st < nx | None => True end.
Proof.
  intros pos. split.
  - revert pos. induction lg as [|x r IH]; intros pos H; cbn [justified_after] in H; [discriminate|].
    apply orb_true_iff in H. destruct H as [H|H].
    + apply andb_prop in H. destruct H as [Hj Hn]. exists [], x, r. split; [reflexivity|]. split; [exact Hj|].
      cbn [length]. rewrite Nat.add_0_r. unfold byc.
      destruct (index_where _ r (S pos)); [apply Nat.ltb_lt; exact Hn|exact Logic.I].
    + destruct (IH _ H) as (l1 & e & l2 & -> & Hj & Hn). exists (x :: l1), e, l2. split; [reflexivity|]. split; [exact Hj|].
      cbn [length]. replace (S (pos + S (length l1))) with (S (S pos + length l1)) by lia. exact Hn.
  - intros (l1 & e & l2 & -> & Hj & Hn). apply ja_skip. cbn [justified_after]. rewrite Hj. cbn [andb].
    apply orb_true_iff. left. unfold byc in Hn.
    destruct (index_where _ l2 (S (pos + length l1))); [apply Nat.ltb_lt; exact Hn|reflexivity].
Qed.

Lemma proj_app j a b : proj j (a ++ b) = proj j a ++ proj j b.
Proof. apply filter_app. Qed.

Lemma J_counts d st lg : J d st lg <->
  exists j m e, nth_error (proj j lg) m = Some e /\ justifies d e = true /\ lg_caller e = j /\ cnt j (S st) lg <= S m.
Proof.
  unfold J. rewrite ja_decomp. split.
  - intros (l1 & e & l2 & -> & Hj & Hn). exists (lg_caller e), (length (proj (lg_caller e) l1)), e.
    split; [|split; [exact Hj|split; [reflexivity|]]].
    + rewrite proj_app. rewrite nth_error_app2, Nat.sub_diag by lia. cbn [proj filter]. rewrite byc_self. reflexivity.
    + unfold cnt. cbn [Nat.add] in Hn. destruct (Nat.le_gt_cases (S st) (length l1)) as [Hle|Hgt].
      * rewrite firstn_app. replace (S st - length l1) with 0 by lia. change (firstn 0 (e :: l2)) with (@nil sx). rewrite app_nil_r.
        assert (X : length (proj (lg_caller e) (firstn (S st) l1)) <= length (proj (lg_caller e) l1)).
        { rewrite <- (firstn_skipn (S st) l1) at 2. rewrite proj_app, app_length. lia. }
        lia.
      * rewrite firstn_app, (firstn_all2 (n := S st) l1) by lia.
        replace (S st - length l1) with (S (st - length l1)) by lia. cbn [firstn].
        rewrite proj_app, app_length. cbn [proj filter]. rewrite byc_self. cbn [length].
        assert (Z : proj (lg_caller e) (firstn (st - length l1) l2) = []).
        { apply (iw_firstn _ l2 (S (length l1))). destruct (index_where _ l2 _); [lia|exact Logic.I]. }
        unfold proj in Z. rewrite Z. cbn. lia.
  - intros (j & m & e & Hm & Hj & Hc & Hcnt). subst j.
    (* locate e in lg *)
    assert (D : forall lg0 m0, nth_error (proj (lg_caller e) lg0) m0 = Some e ->
                exists l1 l2, lg0 = l1 ++ e :: l2 /\ length (proj (lg_caller e) l1) = m0).
    { induction lg0 as [|x r IH]; intros m0 H; [destruct m0; discriminate|]. cbn [proj filter] in H.
      destruct (byc (lg_caller e) x) eqn:Bx.
      - destruct m0 as [|m0]; cbn [nth_error] in H.
        + inversion H; subst. exists [], r. auto.
        + destruct (IH m0 H) as (l1 & l2 & -> & L). exists (x :: l1), l2. split; [reflexivity|].
          cbn [proj filter]. rewrite Bx. cbn [length]. unfold proj in L. lia.
      - destruct (IH m0 H) as (l1 & l2 & -> & L). exists (x :: l1), l2. split; [reflexivity|].
        cbn [proj filter]. rewrite Bx. exact L. }
    destruct (D lg m Hm) as (l1 & l2 & -> & Lm). exists l1, e, l2. split; [reflexivity|]. split; [exact Hj|].
    cbn [Nat.add]. destruct (index_where (byc (lg_caller e)) l2 (S (length l1))) as [nx|] eqn:E; [|exact Logic.I].
    destruct (Nat.le_gt_cases (S st) (length l1)) as [Hle|Hgt]; [apply iw_range in E; lia|].
    unfold cnt in Hcnt. rewrite firstn_app, (firstn_all2 (n := S st) l1) in Hcnt by lia.
    replace (S st - length l1) with (S (st - length l1)) in Hcnt by lia. cbn [firstn] in Hcnt.
    rewrite proj_app, app_length in Hcnt. cbn [proj filter] in Hcnt. rewrite byc_self in Hcnt. cbn [length] in Hcnt.
    assert (Z : filter (byc (lg_caller e)) (firstn (st - length l1) l2) = []).
    { destruct (filter (byc (lg_caller e)) (firstn (st - length l1) l2)); [reflexivity|]. exfalso. cbn [length] in Hcnt. unfold proj in Lm, Hcnt. lia. }
    apply (iw_firstn _ l2 (S (length l1))) in Z. rewrite E in Z. lia.
Qed.

Lemma cnt_S j lg st x : nth_error lg st = Some x -> cnt j (S st) lg = cnt j st lg + (if byc j x then 1 else 0).
Proof.
  intros H. unfold cnt.
  assert (E : firstn (S st) lg = firstn st lg ++ [x]).
  { revert st H. induction lg as [|y r IH]; intros [|st] H; cbn in H; try discriminate.
    - inversion H; subst. reflexivity.
    - cbn [firstn app]. rewrite <- (IH st H). reflexivity. }
  rewrite E, proj_app, app_length. cbn [proj filter]. destruct (byc j x); reflexivity.
Qed.

(** Justification at a start position is the same in both logs. *)
Lemma J_same_run lg lg' d st x : same_run lg lg' -> nth_error lg st = Some x -> is_start_ev x = true ->
  J d st lg -> J d st lg'.
Proof.
  intros [P F B] Hx Hs. rewrite !J_counts. intros (j & m & e & Hm & Hj & Hc & Hcnt).
  exists j, m, e. rewrite P. split; [exact Hm|]. split; [exact Hj|]. split; [exact Hc|].
  destruct (F st x Hx Hs) as [Hx' C]. rewrite (cnt_S j lg' st x Hx'), C, <- (cnt_S j lg st x Hx). exact Hcnt.
Qed.

Lemma iw_le p l : forall n st q x, index_where p l n = Some st -> nth_error l q = Some x -> p x = true -> st <= n + q.
Proof.
  induction l as [|y r IH]; intros n st q x H Hq Px; [discriminate|]. cbn [index_where] in H.
  destruct (p y) eqn:Py; [inversion H; lia|]. destruct q as [|q]; cbn [nth_error] in Hq.
  - inversion Hq; subst. congruence.
  - specialize (IH (S n) st q x H Hq Px). lia.
Qed.

Lemma iw_found p l : forall n x, In x l -> p x = true -> exists st, index_where p l n = Some st.
Proof.
  induction l as [|y r IH]; intros n x Hin Px; [destruct Hin|]. cbn [index_where].
  destruct (p y) eqn:Py; [eexists; reflexivity|]. destruct Hin as [->|Hin]; [congruence|]. eapply IH; eassumption.
Qed.

Lemma iw_at p l st : index_where p l 0 = Some st -> exists x, nth_error l st = Some x /\ p x = true.
Proof.
  intros H. pose proof (iw_range _ _ _ _ H) as R. pose proof (iw_nth _ _ _ _ H) as N. rewrite Nat.sub_0_r in N.
  exists (nth st l (L [])). split; [apply nth_error_nth'; lia|exact N].
Qed.

Lemma is_start_is_start_ev i x : is_start i x = true -> is_start_ev x = true.
Proof. unfold is_start, is_start_ev. intros H. apply andb_prop in H. apply H. Qed.

Lemma started_same_run lg lg' i st : same_run lg lg' -> started_at i lg' st ->
  started_at i lg st /\ exists x, nth_error lg st = Some x /\ is_start_ev x = true /\ nth_error lg' st = Some x.
Proof.
  intros S H. pose proof S as [P F B]. unfold started_at in *.
  destruct (iw_at _ _ _ H) as (x & Hx & Px). pose proof (is_start_is_start_ev _ _ Px) as Sx.
  pose proof (B st x Hx Sx) as Hx0.
  destruct (iw_found (is_start i) lg 0 x (nth_error_In _ _ Hx0) Px) as (st0 & H0).
  pose proof (iw_le _ _ _ _ _ _ H0 Hx0 Px) as Hle. cbn [Nat.add] in Hle.
  destruct (iw_at _ _ _ H0) as (x0 & Hx00 & Px0).
  destruct (F st0 x0 Hx00 (is_start_is_start_ev _ _ Px0)) as [Hx0' _].
  pose proof (iw_le _ _ _ _ _ _ H Hx0' Px0) as Hle'. cbn [Nat.add] in Hle'.
  assert (st0 = st) by lia. subst st0. split; [exact H0|]. exists x. auto.
Qed.

Theorem clause24_same_run sets lg lg' : same_run lg lg' -> clause24_ok sets lg -> clause24_ok sets lg'.
Proof.
  intros S H i p st Hi Hs Hst.
  destruct (started_same_run lg lg' i st S Hst) as (Hst0 & x & Hx & Sx & _).
  destruct (iw_some_in _ _ _ _ Hs) as (y & Hy & Py). apply (same_run_in lg lg' y S) in Hy.
  destruct (iw_found (is_succ i) lg 0 y Hy Py) as (p0 & Hp0).
  specialize (H i p0 st Hi Hp0 Hst0). rewrite forallb_forall in *. intros d Hd.
  apply (J_same_run lg lg' d st x S Hx Sx). apply H, Hd.
Qed.

Lemma existsb_same {T} (p : T -> bool) l l' : (forall x, In x l' <-> In x l) -> existsb p l' = existsb p l.
Proof.
  intros E. destruct (existsb p l) eqn:A.
  - apply existsb_exists in A. destruct A as (x & Hx & Px). apply existsb_exists. exists x. split; [apply E, Hx|exact Px].
  - destruct (existsb p l') eqn:A'; [|reflexivity]. apply existsb_exists in A'. destruct A' as (x & Hx & Px).
    assert (existsb p l = true) by (apply existsb_exists; exists x; split; [apply E, Hx|exact Px]). congruence.
Qed.

Lemma existsb_ext' {T} (f g : T -> bool) l : (forall x, f x = g x) -> existsb f l = existsb g l.
Proof. intros E. induction l as [|x r IH]; [reflexivity|]. cbn [existsb]. rewrite E, IH. reflexivity. Qed.

Lemma copied_within_same d dur t lg lg' : (forall x, In x lg' <-> In x lg) ->
  copied_within d dur t lg' = copied_within d dur t lg.
Proof.
  intros E. unfold copied_within. rewrite (existsb_same _ lg lg' E).
  apply existsb_ext'. intros e. rewrite (existsb_same _ lg lg' E). reflexivity.
Qed.

Theorem clause25_same_run dur sets lg lg' : same_run lg lg' -> clause25_ok dur sets lg -> clause25_ok dur sets lg'.
Proof.
  intros S H i p st Hi Hs Hst.
  destruct (started_same_run lg lg' i st S Hst) as (Hst0 & x & Hx & Sx & Hx').
  destruct (iw_some_in _ _ _ _ Hs) as (y & Hy & Py). apply (same_run_in lg lg' y S) in Hy.
  destruct (iw_found (is_succ i) lg 0 y Hy Py) as (p0 & Hp0).
  specialize (H i p0 st Hi Hp0 Hst0).
  assert (T : tstart_of lg' st = tstart_of lg st).
  { unfold tstart_of. rewrite (nth_error_nth lg' st (L []) Hx'), (nth_error_nth lg st (L []) Hx). reflexivity. }
  rewrite T. rewrite forallb_forall in *. intros d Hd. rewrite (copied_within_same d dur _ lg lg'); [apply H, Hd|].
  intros z. apply same_run_in, S.
Qed.

Theorem clause27_same_run kinds lg lg' : same_run lg lg' -> clause27_ok kinds lg -> clause27_ok kinds lg'.
Proof.
  intros S H i d R (x & Hx & Sx). apply (same_run_in lg lg' x S) in Hx.
  destruct (H i d R (ex_intro _ x (conj Hx Sx))) as (y & Hy & Py). exists y. split; [apply (same_run_in lg lg' y S), Hy|exact Py].
Qed.

(** * [same_run] contains the swaps of adjacent lines of different callers *)
Lemma swap_proj j l1 a b l2 : lg_caller a <> lg_caller b -> proj j (l1 ++ b :: a :: l2) = proj j (l1 ++ a :: b :: l2).
Proof.
  intros Hne. rewrite !proj_app. f_equal. cbn [proj filter].
  destruct (byc j b) eqn:Eb; destruct (byc j a) eqn:Ea; try reflexivity.
  unfold byc in Ea, Eb. apply Nat.eqb_eq in Ea, Eb. congruence.
Qed.

Lemma swap_nth l1 a b l2 p x : nth_error (l1 ++ a :: b :: l2) p = Some x -> is_start_ev x = true ->
  is_start_ev a = false -> is_start_ev b = false ->
  nth_error (l1 ++ b :: a :: l2) p = Some x /\ (p < length l1 \/ length l1 + 2 <= p).
Proof.
  intros H Sx Sa Sb. destruct (Nat.lt_ge_cases p (length l1)) as [Hl|Hl].
  - rewrite nth_error_app1 in * by exact Hl. auto.
  - rewrite nth_error_app2 in * by exact Hl. destruct (p - length l1) as [|[|q]] eqn:E; cbn [nth_error] in *.
    + inversion H; subst. congruence.
    + inversion H; subst. congruence.
    + split; [exact H|right; lia].
Qed.

Lemma swap_cnt j l1 a b l2 p : lg_caller a <> lg_caller b -> p < length l1 \/ length l1 + 2 <= p ->
  cnt j p (l1 ++ b :: a :: l2) = cnt j p (l1 ++ a :: b :: l2).
Proof.
  intros Hne [Hl|Hl]; unfold cnt.
  - rewrite !firstn_app. replace (p - length l1) with 0 by lia. reflexivity.
  - rewrite !firstn_app, !(firstn_all2 (n := p) l1) by lia.
    replace (p - length l1) with (S (S (p - length l1 - 2))) by lia. cbn [firstn].
    rewrite (swap_proj j l1 a b _ Hne). reflexivity.
Qed.

Theorem same_run_swap l1 a b l2 : lg_caller a <> lg_caller b -> is_start_ev a = false -> is_start_ev b = false ->
  same_run (l1 ++ a :: b :: l2) (l1 ++ b :: a :: l2).
Proof.
  intros Hne Sa Sb. constructor.
  - intros j. apply swap_proj, Hne.
  - intros p x Hx Sx. destruct (swap_nth l1 a b l2 p x Hx Sx Sa Sb) as [H1 H2]. split; [exact H1|].
    intros j. apply swap_cnt; assumption.
  - intros p x Hx Sx. exact (proj1 (swap_nth l1 b a l2 p x Hx Sx Sb Sa)).
Qed.

Theorem clause24_any_write_order sets lg lg' : clause24_ok sets lg -> same_run lg lg' -> clause24_ok sets lg'.
Proof. intros H S. eapply clause24_same_run; eassumption. Qed.
