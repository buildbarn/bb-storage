(** Run/R01SMonInv.v — the joint invariant of the harness model [exec] (sector-writer state
    plus the validating chunk readers [vst]) and the monitor's bookkeeping ([minfo]), and its
    preservation by one harness event; per event: the monitor's clauses 2, 3, 5 do not fire on
    the model's device writes, and (for any state satisfying the invariant) clause 1 does not
    fire on the model's device contents. *)
From Coq Require Import List Arith ZArith Bool Lia.
From BBS Require Import Common.Sx Store.SectorWriter Store.SectorWriterProofs Store.SectorWriterSpec
  Store.SectorWriterCommute Store.SectorWriterInv Store.SectorWriterAccum
  Store.SectorWriterDevice Run.R01S Run.R01SMonBase.
Import ListNotations.
Open Scope nat_scope.

Definition ws_next (ev res : sx) (ws : list minfo) : list minfo :=
  let kind := sx_nat (sx_nth ev 0) in
  let arg := sx_nat (sx_nth ev 1) in
  match kind with
  | 0 => if sx_bool (sx_nth res 0)
         then ws ++ [{| m_size := arg; m_data := []; m_ok := false; m_fin := false |}] else ws
  | 1 => match nth_error ws arg with
         | Some m => if m_fin m then ws else
                       upd ws arg {| m_size := m_size m; m_data := m_data m ++ dec_bytes (sx_nth ev 2);
                                     m_ok := false; m_fin := negb (Z.eqb (sx_Z (sx_nth res 0)) 0) |}
         | None => ws end
  | 2 | 3 => match nth_error ws arg with
             | Some m => if m_fin m then ws else
                           upd ws arg {| m_size := m_size m; m_data := m_data m;
                                         m_ok := Z.eqb (sx_Z (sx_nth res 0)) 1;
                                         m_fin := negb (Z.eqb (sx_Z (sx_nth res 0)) 0) |}
             | None => ws end
  | _ => ws
  end.

Definition b2 (k : cfg01s) (log : list dwrite) : list Z :=
  let c := k_cfg k in
  if forallb (in_range (c_base c * c_sector c) ((c_base c + c_spb c) * c_sector c)) log then [] else [2%Z].

Definition b5 (k : cfg01s) (log : list dwrite) : list Z :=
  let c := k_cfg k in
  match k_restored k with
  | Some r => if forallb (fun w => c_base c * c_sector c + r <=? fst w) log then [] else [5%Z]
  | None => [] end.

Definition b3 (k : cfg01s) (starts : list nat) (ev : sx) (ws : list minfo) (log : list dwrite) : list Z :=
  let c := k_cfg k in
  let S := c_sector c in
  let kind := sx_nat (sx_nth ev 0) in
  let arg := sx_nat (sx_nth ev 1) in
  let blo := c_base c * S in
  match kind with
  | 1 | 2 | 3 =>
      match nth_error ws arg with
      | Some m =>
          let s := nth arg starts 0 in
          let lo := blo + s / S * S in
          let hi := blo + (s + m_size m + S - 1) / S * S in
          if forallb (in_range lo hi) log then [] else [3%Z]
      | None => match log with [] => [] | _ => [3%Z] end
      end
  | _ => []
  end.

Lemma mon_step_eq k starts ev res l dev ws bad :
  mon_step k starts ev (L [res; enc_log l]) (dev, ws, bad) =
  (apply_writes dev l, ws_next ev res ws,
   bad ++ (if holds (k_cfg k) starts (apply_writes dev l) (ws_next ev res ws) then [] else [1%Z]) ++
          b2 k l ++ b3 k starts ev ws l ++ b5 k l).
Proof.
  unfold mon_step.
  change (sx_nth (L [res; enc_log l]) 1) with (enc_log l).
  change (sx_nth (L [res; enc_log l]) 0) with res.
  rewrite dec_enc_log. reflexivity.
Qed.

Lemma b2_nil k : b2 k [] = [].
Proof. reflexivity. Qed.

Lemma b5_nil k : b5 k [] = [].
Proof. unfold b5. destruct (k_restored k); reflexivity. Qed.

Lemma b3_nil k starts ev ws : b3 k starts ev ws [] = [].
Proof.
  unfold b3. destruct (sx_nat (sx_nth ev 0)) as [|[|[|[|n]]]]; try reflexivity;
    destruct (nth_error ws (sx_nat (sx_nth ev 1))); reflexivity.
Qed.

Definition pend (v : vst) : list byte := match v_pending v with Some ch => ch | None => [] end.

(** writer record of the model, its validating reader, the monitor's record of it *)
Definition rel (t : thread) (v : vst) (m : minfo) : Prop :=
  m_size m = t_size t /\ v_size v = t_size t /\ v_live v = negb (m_fin m) /\
  (v_live v = true ->
     t_status t = Active /\ m_ok m = false /\ m_data m = t_data t ++ pend v /\
     v_fed v = length (m_data m) /\ v_fed v <= v_size v /\ (v_pending v <> None -> v_fed v = v_size v)) /\
  (m_ok m = true -> t_status t = Flushed /\ m_data m = t_data t).

Lemma rel_dead t v' m' :
  m_size m' = t_size t -> v_size v' = t_size t -> v_live v' = false -> m_fin m' = true -> m_ok m' = false ->
  rel t v' m'.
Proof.
  intros E1 E2 E3 E4 E5. unfold rel. rewrite E3, E4, E5.
  split; [exact E1|]. split; [exact E2|]. split; [reflexivity|]. split; intros; discriminate.
Qed.

Lemma rel_flushed t v' m' :
  m_size m' = t_size t -> v_size v' = t_size t -> v_live v' = false -> m_fin m' = true ->
  t_status t = Flushed -> m_data m' = t_data t -> rel t v' m'.
Proof.
  intros E1 E2 E3 E4 E5 E6. unfold rel. rewrite E3, E4.
  split; [exact E1|]. split; [exact E2|]. split; [reflexivity|]. split; [intros; discriminate|auto].
Qed.

Lemma rel_live t v' m' :
  m_size m' = t_size t -> v_size v' = t_size t -> v_live v' = true -> m_fin m' = false ->
  t_status t = Active -> m_ok m' = false -> m_data m' = t_data t ++ pend v' ->
  v_fed v' = length (m_data m') -> v_fed v' <= v_size v' -> (v_pending v' <> None -> v_fed v' = v_size v') ->
  rel t v' m'.
Proof.
  intros E1 E2 E3 E4 E5 E6 E7 E8 E9 E10. unfold rel. rewrite E3, E4, E6.
  split; [exact E1|]. split; [exact E2|]. split; [reflexivity|]. split; [auto 10|intros; discriminate].
Qed.

Definition R3 (ts : list thread) (vs : list vst) (ws : list minfo) : Prop :=
  length vs = length ts /\ length ws = length ts /\
  forall j t v m, nth_error ts j = Some t -> nth_error vs j = Some v -> nth_error ws j = Some m -> rel t v m.

Lemma nth_error_ex {T} (l : list T) j : j < length l -> exists x, nth_error l j = Some x.
Proof. intros H. destruct (nth_error l j) eqn:E; [eauto|]. apply nth_error_None in E. lia. Qed.

Lemma R3_get ts vs ws j v : R3 ts vs ws -> nth_error vs j = Some v ->
  exists t m, nth_error ts j = Some t /\ nth_error ws j = Some m /\ rel t v m.
Proof.
  intros (L1 & L2 & H) Hv. pose proof (nth_error_lt _ _ _ Hv) as Hl.
  destruct (nth_error_ex ts j ltac:(lia)) as [t Ht]. destruct (nth_error_ex ws j ltac:(lia)) as [m Hm].
  exists t, m. eauto.
Qed.

Lemma R3_none ts vs ws j : R3 ts vs ws -> nth_error vs j = None -> nth_error ws j = None.
Proof. intros (L1 & L2 & _) Hv. apply nth_error_None in Hv. apply nth_error_None. lia. Qed.

Lemma R3_upd ts vs ws j t' v' m' :
  R3 ts vs ws -> rel t' v' m' -> R3 (upd ts j t') (upd vs j v') (upd ws j m').
Proof.
  intros (L1 & L2 & H) Hr. unfold R3. rewrite !upd_length. split; [exact L1|split; [exact L2|]].
  intros i t v m Ht Hv Hm. destruct (Nat.eq_dec j i) as [->|Hne].
  - pose proof (nth_error_lt _ _ _ Ht) as Hl. rewrite upd_length in Hl.
    rewrite nth_error_upd_eq in Ht by lia. rewrite nth_error_upd_eq in Hv by lia.
    rewrite nth_error_upd_eq in Hm by lia. congruence.
  - rewrite nth_error_upd_ne in Ht by exact Hne. rewrite nth_error_upd_ne in Hv by exact Hne.
    rewrite nth_error_upd_ne in Hm by exact Hne. eauto.
Qed.

Lemma R3_upd2 ts vs ws j t v' m' :
  R3 ts vs ws -> nth_error ts j = Some t -> rel t v' m' -> R3 ts (upd vs j v') (upd ws j m').
Proof. intros H Ht Hr. rewrite <- (upd_same ts j t Ht). apply R3_upd; assumption. Qed.

Lemma R3_app ts vs ws t v m : R3 ts vs ws -> rel t v m -> R3 (ts ++ [t]) (vs ++ [v]) (ws ++ [m]).
Proof.
  intros (L1 & L2 & H) Hr. unfold R3. rewrite !app_length. cbn [length]. split; [lia|split; [lia|]].
  intros i t1 v1 m1 Ht Hv Hm. destruct (Nat.lt_ge_cases i (length ts)) as [Hi|Hi].
  - rewrite nth_error_app1 in Ht by lia. rewrite nth_error_app1 in Hv by lia.
    rewrite nth_error_app1 in Hm by lia. eauto.
  - pose proof (nth_error_lt _ _ _ Ht) as Hl. rewrite app_length in Hl. cbn [length] in Hl.
    assert (i = length ts) by lia. subst i.
    rewrite nth_error_app2 in Ht by lia. rewrite Nat.sub_diag in Ht.
    rewrite <- L1 in Hv. rewrite nth_error_app2 in Hv by lia. rewrite Nat.sub_diag in Hv.
    rewrite <- L2 in Hm. rewrite nth_error_app2 in Hm by lia. rewrite Nat.sub_diag in Hm.
    cbn in Ht, Hv, Hm. congruence.
Qed.

Section Inv.
Variable k : cfg01s.
Let c := k_cfg k.
Let SS := c_sector c.
Hypothesis HS : 1 <= c_sector c.
Hypothesis Hbase : c_base c = c_spb c.

Definition Inv (r : rstate) (dev : list byte) (ws : list minfo) : Prop :=
  Reach k (r_st r) /\ dev = st_dev (r_st r) /\ R3 (st_threads (r_st r)) (r_v r) ws.

(** [starts] (the final start offsets) agree with the writers of [s] *)
Definition compat (starts : list nat) (s : state) : Prop :=
  forall j t, nth_error (st_threads s) j = Some t -> nth j starts 0 = t_start t.

Lemma compat_ext starts s s2 : ext s s2 -> compat starts s2 -> compat starts s.
Proof. intros He Hc j t Hj. destruct (He _ _ Hj) as (t2 & H2 & E & _). rewrite (Hc _ _ H2). exact E. Qed.

Fixpoint hgo (starts : list nat) (dev : list byte) (j : nat) (ws : list minfo) : bool :=
  match ws with
  | [] => true
  | m :: ws' =>
      (if m_ok m then
         bytes_eqb (slice dev (c_base c * c_sector c + nth j starts 0) (m_size m)) (m_data m)
       else true) && hgo starts dev (S j) ws'
  end.

Lemma holds_hgo starts dev ws : holds c starts dev ws = hgo starts dev 0 ws.
Proof.
  unfold holds. generalize 0 at 2 3. induction ws as [|m ws IH]; intros j; [reflexivity|].
  cbn [hgo]. rewrite <- IH. reflexivity.
Qed.

Lemma hgo_true starts dev ws : forall j0,
  (forall j m, nth_error ws j = Some m -> m_ok m = true ->
     slice dev (c_base c * c_sector c + nth (j0 + j) starts 0) (m_size m) = m_data m) ->
  hgo starts dev j0 ws = true.
Proof.
  induction ws as [|m ws IH]; intros j0 H; cbn [hgo]; [reflexivity|].
  apply andb_true_intro; split.
  - destruct (m_ok m) eqn:Hok; [|reflexivity].
    pose proof (H 0 m eq_refl Hok) as E. rewrite Nat.add_0_r in E. rewrite E. apply bytes_eqb_refl.
  - apply IH. intros j m' Hj Hok. replace (S j0 + j) with (j0 + S j) by lia. apply H; assumption.
Qed.

Lemma holds_ok r dev ws starts : Inv r dev ws -> compat starts (r_st r) -> holds c starts dev ws = true.
Proof.
  intros (HR & -> & H3) Hc. rewrite holds_hgo. apply hgo_true. intros j m Hm Hok. cbn [Nat.add].
  destruct H3 as (L1 & L2 & H3). pose proof (nth_error_lt _ _ _ Hm) as Hl.
  destruct (nth_error_ex (st_threads (r_st r)) j ltac:(lia)) as [t Ht].
  destruct (nth_error_ex (r_v r) j ltac:(lia)) as [v Hv].
  destruct (H3 _ _ _ _ Ht Hv Hm) as (E1 & _ & _ & _ & Hf). destruct (Hf Hok) as [Hfl Hd].
  rewrite (Hc _ _ Ht), E1, Hd. apply (reach_flushed_slice k HS Hbase _ _ _ HR Ht Hfl).
Qed.

(** one writer action of the model: state change and device writes *)
Definition tact (s : state) (j : nat) (t : thread) (s' : state) (l : list dwrite) (t' : thread) : Prop :=
  (Reach k s -> Reach k s') /\
  st_threads s' = upd (st_threads s) j t' /\ t_start t' = t_start t /\ t_size t' = t_size t /\
  st_dev s' = apply_writes (st_dev s) l /\
  (Reach k s -> span_ok k (t_start t) (t_size t) l).

Lemma tact_step s e s' l j t t' im :
  step c s e = Some (s', l) -> ev_thread e = Some j -> nth_error (st_threads s) j = Some t ->
  s' = set_thread s j t' im l -> t_start t' = t_start t -> t_size t' = t_size t -> tact s j t s' l t'.
Proof.
  intros Hs He Hj -> E1 E2. unfold tact. split; [intros HR; eapply reach_step; eauto|].
  split; [reflexivity|]. split; [exact E1|]. split; [exact E2|]. split; [reflexivity|].
  intros HR. exact (reach_step_span k HS Hbase _ _ _ _ _ _ HR Hs He Hj).
Qed.

Lemma tact_write s j t ch :
  nth_error (st_threads s) j = Some t -> t_status t = Active ->
  length (t_data t) + length ch <= t_size t ->
  exists s' l t', step_skip c s (EWrite j ch) = (s', l) /\ tact s j t s' l t' /\
    t_data t' = t_data t ++ ch /\ t_status t' = Active.
Proof.
  intros Hj Ha Hl. pose proof (proj2 (step_write_iff c s j ch _ _ t Hj) (conj Ha (conj Hl (conj eq_refl eq_refl)))) as Hs.
  do 3 eexists. split; [apply step_skip_some; exact Hs|]. split; [eapply tact_step; [exact Hs|reflexivity|exact Hj|reflexivity..]|split; reflexivity].
Qed.

Lemma tact_flush s j t :
  nth_error (st_threads s) j = Some t -> t_status t = Active -> length (t_data t) = t_size t ->
  exists s' l t', step_skip c s (EFlush j) = (s', l) /\ tact s j t s' l t' /\
    t_data t' = t_data t /\ t_status t' = Flushed.
Proof.
  intros Hj Ha Hl. pose proof (proj2 (step_flush_iff c s j _ _ t Hj) (conj Ha (conj Hl (conj eq_refl eq_refl)))) as Hs.
  do 3 eexists. split; [apply step_skip_some; exact Hs|]. split; [eapply tact_step; [exact Hs|reflexivity|exact Hj|reflexivity..]|split; reflexivity].
Qed.

Lemma tact_abandon s j t :
  nth_error (st_threads s) j = Some t -> t_status t = Active ->
  exists s' t', step_skip c s (EAbandon j) = (s', []) /\ tact s j t s' [] t' /\
    t_data t' = t_data t /\ t_status t' = Abandoned.
Proof.
  intros Hj Ha. pose proof (proj2 (step_abandon_iff c s j _ _ t Hj) (conj Ha (conj eq_refl eq_refl))) as Hs.
  do 2 eexists. split; [apply step_skip_some; exact Hs|]. split; [eapply tact_step; [exact Hs|reflexivity|exact Hj|reflexivity..]|split; reflexivity].
Qed.

Lemma tact_trans s j t s1 l1 t1 s2 l2 t2 :
  tact s j t s1 l1 t1 -> tact s1 j t1 s2 l2 t2 -> tact s j t s2 (l1 ++ l2) t2.
Proof.
  intros (A1 & A2 & A3 & A4 & A5 & A6) (B1 & B2 & B3 & B4 & B5 & B6). unfold tact. repeat apply conj.
  - auto.
  - rewrite B2, A2. apply upd_upd.
  - congruence.
  - congruence.
  - rewrite B5, A5. symmetry. apply apply_writes_app.
  - intros HR. apply span_ok_app; [auto|]. rewrite <- A3, <- A4. auto.
Qed.

(** the invariant after a writer action; clauses 2, 3, 5 on its device writes *)
Lemma leaf r dev ws j t m s' l t' v' m' starts :
  Inv r dev ws -> nth_error (st_threads (r_st r)) j = Some t -> m_size m = t_size t ->
  tact (r_st r) j t s' l t' -> rel t' v' m' ->
  Inv {| r_st := s'; r_v := upd (r_v r) j v' |} (apply_writes dev l) (upd ws j m') /\
  (compat starts s' ->
   b2 k l = [] /\
   (if forallb (in_range (c_base c * SS + nth j starts 0 / SS * SS)
                         (c_base c * SS + (nth j starts 0 + m_size m + SS - 1) / SS * SS)) l
    then [] else [3%Z]) = [] /\ b5 k l = []).
Proof.
  intros (HR & -> & H3) Hj Hsz (T1 & T2 & T3 & T4 & T5 & T6) Hrel. split.
  - unfold Inv. cbn [r_st r_v]. split; [auto|]. split; [symmetry; exact T5|].
    rewrite T2. apply R3_upd; assumption.
  - intros Hc. assert (E : nth j starts 0 = t_start t).
    { rewrite <- T3. apply Hc. rewrite T2. apply nth_error_upd_eq. eapply nth_error_lt; eauto. }
    destruct (T6 HR) as (S1 & S2 & S3). rewrite E, Hsz. unfold b2, b5, span_ok in *. unfold SS, c in *.
    rewrite S1, S2. split; [reflexivity|]. split; [reflexivity|].
    destruct (k_restored k) as [r0|]; [|reflexivity].
    rewrite (S3 r0 eq_refl). reflexivity.
Qed.
End Inv.
