(** C19W — proofs: the monitor [mon19W] (C19's demultiplexer clauses 6-10 and the
    error-annotation clause 15) is silent on the model's own output, for every
    input whose owners have a backend description and whose operations carry
    well-formed instance names (C19's hypotheses for demultiplexer inputs); the
    model is C19's demultiplexer model, observation by observation. *)
From Coq Require Import List ZArith NArith Bool Arith Lia.
From BBS Require Import Common.Sx Common.SxFactsMA Routing.Names Routing.NamesProofs Routing.Demux Routing.DemuxProofs Routing.TrieFullMonDemux Run.R19 Run.R19W.
Import ListNotations.
Open Scope Z_scope.

Lemma mon_demux_op_run19W cfg bs bsx op :
  mon_demux_op cfg bsx op (run_op19W cfg bs op) = mon_demux_op cfg bsx op (run_demux_op cfg bs op).
Proof. rewrite !mon_demux_op_eq. reflexivity. Qed.

Lemma run_demux_op_enc cfg bs op : exists c d calls, run_demux_op cfg bs op = enc_op3 c d calls.
Proof.
  rewrite run_demux_op_eq. destruct (kind4 (sx_Z (sx_nth op 0))) as [|[|[|k]]].
  - destruct (demux_get _ _ _) as [r calls]. destruct (enc_data r) as [c d]. eauto.
  - destruct (demux_gfc _ _ _ _) as [r calls]. destruct (enc_data r) as [c d]. eauto.
  - destruct (demux_put _ _ _) as [r calls]. destruct r as [[code disc]| |]; eauto.
  - destruct (demux_fm _ _ _) as [r calls]. destruct r; eauto.
Qed.

Lemma strip3_run_op19W cfg bs op : strip3 (run_op19W cfg bs op) = run_demux_op cfg bs op.
Proof.
  destruct (run_demux_op_enc cfg bs op) as [c [d [calls E]]].
  unfold run_op19W, strip3. rewrite E. reflexivity.
Qed.

Lemma mon_single_nil_inv cfg bsx code data calls kind d others :
  mon_single cfg bsx code data calls kind d others = [] ->
  ((owner cfg (fst d) <? 0) = true /\ calls = []) \/
  ((owner cfg (fst d) <? 0) = false /\ exists c, calls = [c] /\ call_idx c = Z.to_nat (owner cfg (fst d))).
Proof.
  unfold mon_single. cbv zeta. destruct (owner cfg (fst d) <? 0) eqn:Eo.
  - intros H. left. split; [reflexivity|]. destruct calls as [|c r]; [reflexivity|].
    cbn [is_nil] in H. rewrite andb_false_r in H. discriminate H.
  - intros H. right. split; [reflexivity|]. apply app_eq_nil in H as [H _]. unfold sent_ok in H.
    destruct calls as [|c [|c2 r]]; [discriminate H| |discriminate H].
    exists c. split; [reflexivity|].
    destruct (Nat.eqb (call_idx c) (Z.to_nat (owner cfg (fst d)))) eqn:E; [apply Nat.eqb_eq; exact E|].
    cbn [andb] in H. discriminate H.
Qed.

Lemma named_enc s : named [enc_str s] s = true.
Proof. unfold named, dec_str, enc_str. rewrite sx_Ns_of_Ns. apply str_eqb_refl. Qed.

Lemma mon15_single_ok cfg code calls d :
  ((owner cfg (fst d) <? 0) = true /\ calls = []) \/
  ((owner cfg (fst d) <? 0) = false /\ exists c, calls = [c] /\ call_idx c = Z.to_nat (owner cfg (fst d))) ->
  mon15_single cfg code (sx_list (errname cfg code calls)) d = [].
Proof.
  unfold mon15_single, errname. cbv zeta. intros [[Ho ->]|[Ho [c [-> Hc]]]]; rewrite Ho.
  - cbn [is_nil]. rewrite orb_true_r. reflexivity.
  - cbn [is_nil orb last]. rewrite orb_false_r. destruct (code =? 0); [reflexivity|].
    cbn [sx_list]. rewrite Hc, named_enc. reflexivity.
Qed.

Section FMShape.
  Variable cfg : list centry.
  Variable bsx : list sx.
  Hypothesis Hlen : (length cfg <= length bsx)%nat.
  Notation bs := (mk_backends 0 bsx).

  (** what the model's FindMissing returns: success only when every name is
      known; a failure is either the getter's (no call) or that of the backend
      called last, which owns one of the requested digests *)
  Lemma demux_fm_shape ds0 r calls :
    demux_fm cfg bs ds0 = (r, calls) ->
    match r with
    | Ok _ => True
    | Err e =>
        (existsb (fun d => owner cfg (fst d) <? 0) (canon ds0) = true /\ calls = []) \/
        (existsb (fun d => owner cfg (fst d) <? 0) (canon ds0) = false /\
         exists calls0 i q, calls = calls0 ++ [CFm i q] /\ bfault bsx i = e /\ e <> 0 /\
                            exists d, In d (canon ds0) /\ own cfg d = i)
    | Panic => False
    end.
  Proof.
    intros E.
    destruct (demux_fm_run cfg bsx Hlen ds0)
      as [[H6 E']|[H6 [cache [parts [HI [[Ef E']|[p1 [x [p2 [Eparts [Hx [Hin E']]]]]]]]]]]];
      rewrite E' in E; injection E as <- <-.
    - left. split; [exact H6|reflexivity].
    - exact I.
    - right. split; [exact H6|]. exists (map fm_call_of p1), (p_idx x), (canon (p_digs x)).
      split; [rewrite map_app; reflexivity|]. split; [reflexivity|]. split; [exact Hx|].
      apply in_map_iff in Hin as [d' [Ho' Hd']]. exists d'. auto.
  Qed.

  Lemma mon15_fm_ok ds0 r calls :
    demux_fm cfg bs ds0 = (r, calls) ->
    let code := match r with Ok _ => 0 | Err e => e | Panic => -1 end in
    r <> Panic /\
    mon15_fm cfg bsx code (sx_list (errname cfg code (map enc_call calls))) ds0 = [].
  Proof.
    intros E. pose proof (demux_fm_shape ds0 r calls E) as Hs. cbv zeta.
    unfold mon15_fm, errname. cbv zeta. destruct r as [ms|e|]; [| |destruct Hs].
    - split; [discriminate|]. cbn [Z.eqb orb sx_list is_nil]. rewrite orb_true_r. reflexivity.
    - split; [discriminate|]. destruct Hs as [[Hu ->]|[Hu [calls0 [i [q [-> [Hb [He [d [Hd Ho]]]]]]]]]]; rewrite Hu.
      + cbn [map is_nil orb]. rewrite orb_true_r. reflexivity.
      + apply Z.eqb_neq in He. rewrite He. cbn [orb].
        rewrite map_app. cbn [map].
        replace (is_nil (map enc_call calls0 ++ [enc_call (CFm i q)])) with false
          by (destruct (map enc_call calls0); reflexivity).
        rewrite last_last. cbn [sx_list].
        destruct (call_enc (CFm i q)) as [E1 _]. rewrite E1. cbn [call_of fst].
        replace (existsb _ (canon ds0)) with true; [reflexivity|].
        symmetry. apply existsb_exists. exists d. split; [exact Hd|]. cbv zeta.
        unfold own in Ho. rewrite Ho, Hb, Z.eqb_refl, named_enc. reflexivity.
  Qed.
End FMShape.

Theorem mon15_op_silent cfg bsx op :
  (length cfg <= length bsx)%nat -> op_wf op = true ->
  mon15_op cfg bsx op (run_op19W cfg (mk_backends 0 bsx) op) = [].
Proof.
  intros Hlen Hwf. pose proof (mon_demux_op_silent cfg bsx op Hlen Hwf) as Hs.
  rewrite mon_demux_op_eq in Hs. cbv zeta in Hs.
  unfold mon15_op, run_op19W. cbv zeta. rewrite zmatch4.
  cbn [sx_nth sx_list nth]. fold (sx_nth (run_demux_op cfg (mk_backends 0 bsx) op) 0).
  fold (sx_nth (run_demux_op cfg (mk_backends 0 bsx) op) 2).
  destruct (kind4 (sx_Z (sx_nth op 0))) as [|[|[|k]]] eqn:Hk.
  - apply mon15_single_ok. exact (mon_single_nil_inv _ _ _ _ _ _ _ _ Hs).
  - reflexivity.
  - apply mon15_single_ok. exact (mon_single_nil_inv _ _ _ _ _ _ _ _ Hs).
  - clear Hs. rewrite run_demux_op_eq, Hk.
    destruct (demux_fm cfg (mk_backends 0 bsx) (dec_dgs (sx_nth op 1))) as [r calls] eqn:E.
    destruct (mon15_fm_ok cfg bsx Hlen _ r calls E) as [Hp H]. cbv zeta in H.
    destruct r as [ms|e|]; [| |congruence]; exact H.
Qed.

Theorem mon19W_silent : forall inp,
  (length (dec_cfg (sx_nth inp 1)) <= length (sx_list (sx_nth inp 2)))%nat ->
  forallb op_wf (sx_list (sx_nth inp 3)) = true ->
  mon19W inp (run19W inp) = [].
Proof.
  intros inp Hlen Hops. unfold mon19W, run19W. cbv zeta. cbn [sx_list].
  rewrite forallb_forall in Hops.
  rewrite !concat_zip_nil; [reflexivity| |].
  - intros op Hop. apply mon15_op_silent; auto.
  - intros op Hop. rewrite mon_demux_op_run19W. apply mon_demux_op_silent; auto.
Qed.

(** the model is C19's demultiplexer model: dropping the annotation gives C19's
    [run19] on the same (kind 2) input; the monitor is C19's [mon19] on the
    stripped observations plus clause 15 *)
Theorem run19W_is_run19 : forall inp, sx_Z (sx_nth inp 0) = 2 ->
  L (map strip3 (sx_list (run19W inp))) = run19 inp.
Proof.
  intros inp H. unfold run19W, run19. rewrite H. cbv zeta. cbn [sx_list].
  rewrite map_map. f_equal. apply map_ext. intros op. apply strip3_run_op19W.
Qed.

Theorem mon19W_is_mon19 : forall inp obs, sx_Z (sx_nth inp 0) = 2 ->
  mon19W inp obs = mon19 inp obs
    ++ concat (zip_with (mon15_op (dec_cfg (sx_nth inp 1)) (sx_list (sx_nth inp 2)))
                        (sx_list (sx_nth inp 3)) (sx_list obs)).
Proof. intros inp obs H. unfold mon19W, mon19. rewrite H. reflexivity. Qed.
