(** C14A: the monitor [mon14A] is silent on every observation the judge
    accepts as agreeing with the model, hence on the model's own output — for
    all histories of Put / Get through the client and raw UpdateActionResult /
    GetActionResult requests, all instance names, digest functions, hash
    lengths, sizes and values that satisfy [inp_wf14A]. *)
From Coq Require Import List ZArith Bool Lia.
From BBS Require Import Common.Sx Rpc.ActionCache Rpc.ActionCacheProofs Run.MonSilentSx Run.R14 Run.R14A.
From BBS Require Run.R14Proofs.
Import ListNotations.
Open Scope Z_scope.

(** the operations through the client carry a digest.Digest *)
Definition op_wf14A (op : sx) : Prop :=
  sx_Z (sx_nth op 0) = 0 \/ sx_Z (sx_nth op 0) = 1 -> key_wf inst_ok14 (dec_key op) = true.
Definition inp_wf14A (inp : sx) : Prop := Forall op_wf14A (sx_list (sx_nth inp 0)).

Lemma legacy_infer len : legacy_fn len = infer_fn len.
Proof.
  unfold legacy_fn, infer_fn. cbn [find].
  change (fn_len 1) with (Some 32). change (fn_len 2) with (Some 40). change (fn_len 3) with (Some 64).
  change (fn_len 4) with (Some 96). change (fn_len 5) with (Some 128). cbv iota beta.
  rewrite !(Z.eqb_sym _ len). reflexivity.
Qed.

Lemma mon_key_server q :
  mon_key true q = match server_digest inst_ok14 q with inr k => Some k | inl _ => None end.
Proof.
  unfold mon_key, server_digest, get_bare_function. cbn [andb]. rewrite legacy_infer.
  rewrite (Z.leb_antisym (k_size q) 0).
  destruct (k_fn q =? 0).
  - destruct (infer_fn (k_len q)) as [f|]; [|destruct (inst_ok14 (k_inst q)); reflexivity].
    destruct (inst_ok14 (k_inst q)); cbn [negb andb]; [|reflexivity].
    destruct (fn_len f) as [l|]; [|reflexivity]. rewrite (Z.eqb_sym l).
    destruct (k_len q =? l); cbn [negb andb]; [|reflexivity].
    destruct (k_size q <? 0); reflexivity.
  - destruct (inst_ok14 (k_inst q)); cbn [negb andb].
    + destruct (fn_len (k_fn q)) as [l|] eqn:El; [|reflexivity]. rewrite El, (Z.eqb_sym l).
      destruct (k_len q =? l); cbn [negb andb]; [|reflexivity].
      destruct (k_size q <? 0); reflexivity.
    + destruct (fn_len (k_fn q)); reflexivity.
Qed.

Lemma mon_key_client q : key_wf inst_ok14 q = true -> mon_key false q = Some q.
Proof.
  unfold key_wf, mon_key. cbn [andb]. intro H.
  destruct (fn_len (k_fn q)) as [l|]; [|rewrite andb_false_r in H; discriminate].
  rewrite (Z.eqb_sym l), H. destruct q. reflexivity.
Qed.

Lemma mon_ac_op_model st op :
  op_wf14A op -> mon_ac_op st op (enc_res (snd (ac_op st op))) = ([], fst (ac_op st op)).
Proof.
  intro Hwf. unfold op_wf14A in Hwf. unfold mon_ac_op, ac_op.
  destruct (sx_Z (sx_nth op 0) =? 0) eqn:K0.
  { apply Z.eqb_eq in K0. specialize (Hwf (or_introl K0)).
    rewrite (client_put_wf _ _ _ _ Hwf). cbn [orb negb]. rewrite (mon_key_client _ Hwf).
    cbn -[sx_eqb enc_req]. rewrite sx_eqb_refl. reflexivity. }
  destruct (sx_Z (sx_nth op 0) =? 1) eqn:K1.
  { apply Z.eqb_eq in K1. specialize (Hwf (or_intror K1)).
    rewrite (client_get_wf _ _ _ Hwf). cbn [orb negb]. rewrite (mon_key_client _ Hwf).
    assert (K2 : sx_Z (sx_nth op 0) =? 2 = false) by (rewrite K1; reflexivity). rewrite K2.
    destruct (ac_get st (dec_key op)) as [v|]; cbn -[sx_eqb enc_req];
      rewrite sx_eqb_refl, ?Z.eqb_refl; reflexivity. }
  cbn [orb negb]. rewrite mon_key_server.
  destruct (sx_Z (sx_nth op 0) =? 2) eqn:K2.
  - unfold server_update. destruct (server_digest inst_ok14 (dec_key op)) as [c|k] eqn:E.
    + apply server_digest_inl in E. subst c. reflexivity.
    + cbn -[sx_eqb enc_req]. rewrite sx_eqb_refl. reflexivity.
  - unfold server_get. destruct (server_digest inst_ok14 (dec_key op)) as [c|k] eqn:E.
    + apply server_digest_inl in E. subst c. reflexivity.
    + destruct (ac_get st k) as [v|]; cbn -[sx_eqb enc_req];
        rewrite sx_eqb_refl, ?Z.eqb_refl; reflexivity.
Qed.

Lemma mon_ac_ops_model : forall ops st,
  Forall op_wf14A ops -> mon_ac_ops st ops (snd (ac_ops st ops)) = ([], fst (ac_ops st ops)).
Proof.
  induction ops as [|op ops IH]; intros st Hwf; [reflexivity|].
  inversion Hwf as [|? ? Hop Hops]. subst. cbn [ac_ops].
  pose proof (mon_ac_op_model st op Hop) as Hm.
  destruct (ac_op st op) as [st1 r]. cbn [fst snd] in Hm.
  specialize (IH st1 Hops). destruct (ac_ops st1 ops) as [st2 rs]. cbn [fst snd] in *.
  cbn [mon_ac_ops]. rewrite Hm, IH. reflexivity.
Qed.

Theorem mon14A_silent_on_agreeing : forall inp obs,
  inp_wf14A inp -> agree14A (run14A inp) obs = true -> mon14A inp obs = [].
Proof.
  intros inp obs Hwf. unfold agree14A, run14A, mon14A.
  pose proof (mon_ac_ops_model (sx_list (sx_nth inp 0)) [] Hwf) as Hm.
  destruct (ac_ops [] (sx_list (sx_nth inp 0))) as [st rs]. cbn [fst snd] in Hm.
  rewrite !sx_nth_L. cbn [nth sx_list]. intro H.
  apply andb_prop in H. destruct H as [H H3]. apply andb_prop in H. destruct H as [H1 H2].
  apply sx_eqb_eq in H1. rewrite H1. cbn [sx_list]. rewrite Hm. cbn [app].
  unfold enc_store in H2. rewrite map_length in H2. rewrite H2, H3. reflexivity.
Qed.

Theorem agree14A_model : forall inp, agree14A (run14A inp) (run14A inp) = true.
Proof.
  intro inp. unfold agree14A. rewrite sx_eqb_refl, Nat.eqb_refl, R14Proofs.sx_seteq_refl. reflexivity.
Qed.

Theorem mon14A_silent_on_model : forall inp, inp_wf14A inp -> mon14A inp (run14A inp) = [].
Proof. intros inp Hwf. apply mon14A_silent_on_agreeing; [exact Hwf|apply agree14A_model]. Qed.
