(** C17, kind 2: judging a gated run of concurrent callers of a replicator
    decorator.  The schedule lists the external events (start a caller, let the
    backend call a caller is parked in return with a given fault, cancel a
    caller's context, advance the clock); after each one the harness waits for
    quiescence and reports every caller's status.  Several callers may run
    between two quiescent points and the order of their lock-protected
    sections is not determined, so the judge follows the SET of model states
    reachable by running internal steps to quiescence in every order, and
    keeps those that show the observed statuses. *)
From BBS Require Import Common.Sx Common.ListX Compose.ExistenceCache Compose.Replicators.
Import ListNotations.
Open Scope Z_scope.

Definition dec_mode (s : sx) : mode :=
  match sx_Z (sx_nth s 0) with
  | 1 => MLimit (sx_nat (sx_nth s 1))
  | 2 => MQueued (sx_nat (sx_nth s 1)) (sx_N (sx_nth s 2))
  | _ => MDedup
  end.

Definition dec_ev (s : sx) : ev :=
  match sx_Z (sx_nth s 0) with
  | 0 => EStart (sx_nat (sx_nth s 1))
  | 1 => ERel (sx_nat (sx_nth s 1)) (sx_Z (sx_nth s 2))
  | 2 => ECancel (sx_nat (sx_nth s 1))
  | _ => EAdv (sx_N (sx_nth s 1))
  end.

Definition enc_pc (p : pc) : sx :=
  match p with
  | NotStarted => L [A 0]
  | Idle => L [A 1]
  | Wait k e => L [A 2; of_nat k; of_nat e]
  | Fm k e => L [A 3; of_nat k; of_nat e]
  | Get d r e => L [A 4; of_nat d; of_nats r; of_nat e]
  | Put d b r e => L [A 5; of_nat d; A b; of_nats r; of_nat e]
  | Unreg k e c => L [A 6; of_nat k; of_nat e; A c]
  | Close k e c => L [A 7; of_nat k; of_nat e; A c]
  | WaitSem => L [A 8]
  | Granted => L [A 9]
  | WaitTok => L [A 10]
  | Done c => L [A 11; A c]
  end.
Definition enc_thread (t : thread) : sx :=
  L [enc_pc (tpc t); of_nats (todo t); of_bool (cancelled t); of_option of_nats (bset t)].
Definition enc_state (s : cstate) : sx :=
  L [L (map enc_thread (thr s));
     L (map (fun p => L [of_nat (fst p); of_nat (snd p)]) (inflight s));
     L (map (fun p => L [of_bool (fst p); of_bool (snd p)]) (ents s));
     of_nats (src s); of_nats (snk s); of_nat (cur s); of_nats (semq s); of_bool (tok s);
     L (map (fun p => L [of_nat (fst p); of_N (snd p)]) (times (qcache s)));
     of_nats (lq (elru (qcache s))); of_bool (lpanic (elru (qcache s)));
     of_N (clk s); of_nat (maxkey s); of_nat (maxall s)].

(** What the harness can see of a caller. *)
Definition status_of (t : thread) : sx :=
  match tpc t with
  | NotStarted => L [A 0]
  | Fm k _ => L [A 1; A 0; A 2; of_nats [k]]
  | Get d _ _ => L [A 1; A 1; A 0; of_nats [d]]
  | Put d _ _ _ => L [A 1; A 0; A 1; of_nats [d]]
  | Wait _ _ | WaitSem | WaitTok => L [A 2]
  | Done c => L [A 3; A c]
  | _ => L [A 9]
  end.
Definition statuses (s : cstate) : sx := L (map status_of (thr s)).

Definition tau_succ (m : mode) (s : cstate) : list cstate :=
  flat_map (fun i =>
    (match step m s (ETau i false) with Some s' => [s'] | None => [] end) ++
    (match step m s (ETau i true) with Some s' => [s'] | None => [] end)) (seq 0 (length (thr s))).

Definition add_new (x : cstate * sx) (l : list (cstate * sx)) : list (cstate * sx) :=
  if existsb (fun y => sx_eqb (snd x) (snd y)) l then l else x :: l.
Definition tag (s : cstate) : cstate * sx := (s, enc_state s).

(** Breadth-first closure under internal steps; states without an enabled
    internal step are quiescent. *)
Fixpoint quiesce (fuel : nat) (m : mode) (frontier finals : list (cstate * sx)) : list (cstate * sx) :=
  match fuel with
  | O => finals
  | S fuel' =>
      match frontier with
      | [] => finals
      | _ =>
          let '(next, finals') :=
            fold_left (fun (acc : list (cstate * sx) * list (cstate * sx)) (x : cstate * sx) =>
                         match tau_succ m (fst x) with
                         | [] => (fst acc, add_new x (snd acc))
                         | succ => (fold_left (fun a s' => add_new (tag s') a) succ (fst acc), snd acc)
                         end) frontier ([], finals) in
          quiesce fuel' m next finals'
      end
  end.

Definition apply_ev (m : mode) (e : ev) (s : cstate) : cstate :=
  match step m s e with Some s' => s' | None => s end.

Definition round (m : mode) (e : ev) (obs_status : sx) (states : list (cstate * sx)) : list (cstate * sx) :=
  let after := fold_left (fun a x => add_new (tag (apply_ev m e (fst x))) a) states [] in
  filter (fun x => sx_eqb (statuses (fst x)) obs_status) (quiesce 200 m after []).

(** Returns the surviving states and the number of rounds survived. *)
Fixpoint rounds (m : mode) (evs : list ev) (obs : list sx) (states : list (cstate * sx)) (n : nat)
  : list (cstate * sx) * nat :=
  match evs, obs with
  | e :: evs', o :: obs' =>
      match round m e o states with
      | [] => ([], n)
      | st' => rounds m evs' obs' st' (S n)
      end
  | [], [] => (states, n)
  | _, _ => ([], n)
  end.

Definition conc_cfg (inp : sx) :=
  (dec_mode (sx_nth inp 1), map (fun s => dedup_sort (sx_nats s)) (sx_list (sx_nth inp 2)),
   dedup_sort (sx_nats (sx_nth inp 3)), dedup_sort (sx_nats (sx_nth inp 4)),
   map dec_ev (sx_list (sx_nth inp 5))).

Definition run_conc (inp obs : sx) : bool * sx :=
  let '(m, sets, source, sink, evs) := conc_cfg inp in
  let '(fin, n) := rounds m evs (sx_list (sx_nth obs 0)) [tag (init_state sets source sink)] 0 in
  let ok := filter (fun x => Nat.eqb (maxkey (fst x)) (sx_nat (sx_nth obs 1))
                             && Nat.eqb (maxall (fst x)) (sx_nat (sx_nth obs 2))
                             && sx_eqb (of_nats (snk (fst x))) (sx_nth obs 3)) fin in
  match ok with
  | x :: _ => (true, L [of_nat n; statuses (fst x); of_nat (maxkey (fst x)); of_nat (maxall (fst x)); of_nats (snk (fst x))])
  | [] => (false, L [of_nat n; L (map (fun x => L [statuses (fst x); of_nat (maxkey (fst x)); of_nat (maxall (fst x)); of_nats (snk (fst x))]) fin)])
  end.

(** * Monitor on the harness's event log
    [(0 i clk)] caller i starts; [(1 i bk op ids clk)] backend call arrives;
    [(2 i bk op ids code ans clk)] it returns; [(3 i code clk)] caller i returns. *)
Definition lg_kind (e : sx) := sx_Z (sx_nth e 0).
Definition lg_caller (e : sx) := sx_nat (sx_nth e 1).

Fixpoint index_where (p : sx -> bool) (l : list sx) (n : nat) : option nat :=
  match l with [] => None | e :: r => if p e then Some n else index_where p r (S n) end.

(** Is the return event [e] a "present in the sink" observation or a completed
    copy into the sink for [d]? *)
Definition justifies (d : nat) (e : sx) : bool :=
  Z.eqb (lg_kind e) 2 && Z.eqb (sx_Z (sx_nth e 2)) 0 && sx_eqb (sx_nth e 4) (of_nats [d]) && Z.eqb (sx_Z (sx_nth e 5)) 0 &&
  ((Z.eqb (sx_Z (sx_nth e 3)) 2 && sx_eqb (sx_nth e 6) (L [])) || Z.eqb (sx_Z (sx_nth e 3)) 1).

(** Some justifying event of [lg] (whose head stands at position [pos]) whose
    caller acts again only after position [start] (so that its in-flight entry can still have
    been registered when the asking caller looked it up). *)
Fixpoint justified_after (d start : nat) (lg : list sx) (pos : nat) : bool :=
  match lg with
  | [] => false
  | e :: r =>
      (justifies d e &&
       match index_where (fun e' => Nat.eqb (lg_caller e') (lg_caller e)) r (S pos) with
       | Some nx => Nat.ltb start nx
       | None => true
       end) || justified_after d start r (S pos)
  end.

(** Queued replicator: some caller j copied [d] into the sink and returned
    success - which is when the copy is recorded in the existence cache - at a
    clock reading no more than [dur] before [tstart]. *)
Definition copied_within (d : nat) (dur tstart : N) (lg : list sx) : bool :=
  existsb (fun e => Z.eqb (lg_kind e) 2 && Z.eqb (sx_Z (sx_nth e 2)) 0 && Z.eqb (sx_Z (sx_nth e 3)) 1
                    && sx_eqb (sx_nth e 4) (of_nats [d]) && Z.eqb (sx_Z (sx_nth e 5)) 0
                    && existsb (fun f => Z.eqb (lg_kind f) 3 && Nat.eqb (lg_caller f) (lg_caller e)
                                         && Z.eqb (sx_Z (sx_nth f 2)) 0 && (tstart <=? sx_N (sx_nth f 3) + dur)%N) lg) lg.

Definition mon_conc (inp obs : sx) : list Z :=
  if sx_eqb obs (L [A (-1)]) then [] else
  let '(m, sets, source, sink, evs) := conc_cfg inp in
  let mk := sx_nat (sx_nth obs 1) in
  let ma := sx_nat (sx_nth obs 2) in
  let lg := sx_list (sx_nth obs 4) in
  (* 21 / 22 / 23: more concurrent copies than allowed *)
  (match m with
   | MDedup => if Nat.ltb 1 mk then [21] else []
   | MLimit k => if Nat.ltb k ma then [22] else []
   | MQueued _ _ => if Nat.ltb 1 ma then [23] else []
   end) ++
  (* 24 / 25: success reported to a caller without justification *)
  flat_map (fun i =>
    let ds := nth i sets [] in
    match index_where (fun e => Z.eqb (lg_kind e) 3 && Nat.eqb (lg_caller e) i && Z.eqb (sx_Z (sx_nth e 2)) 0) lg 0,
          index_where (fun e => Z.eqb (lg_kind e) 0 && Nat.eqb (lg_caller e) i) lg 0 with
    | Some _, Some st =>
        match m with
        | MQueued _ dur =>
            let tstart := sx_N (sx_nth (nth st lg (L [])) 2) in
            if forallb (fun d => copied_within d dur tstart lg) ds then [] else [25]
        | _ => if forallb (fun d => justified_after d st lg 0) ds then [] else [24]
        end
    | _, _ => []
    end) (seq 0 (length sets)).

Definition judge_conc (inp obs : sx) : sx :=
  let (agree, model) := run_conc inp obs in
  let v := mon_conc inp obs in
  verdict agree (negb (match v with [] => true | _ => false end)) model (of_Zs v).
