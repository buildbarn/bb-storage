(** C14P: proofs about the pair model of Run/R14P.v.

    - the Write RPC over an unarmed backend, fed with what the client sends
      for ANY bytes (no client-side check): OK and stored iff the bytes
      match the digest, INVALID_ARGUMENT and nothing stored otherwise;
    - hence the pair's Put equals the armed backend's Put, for every fault
      mode, code, data, digest, chunking and compressor with
      decompress (compress x) = DOk x — and so do whole histories;
    - the monitor [mon14P] is silent on the model, for all histories that
      satisfy [inp_wf14P]. *)
From Coq Require Import List ZArith Bool Lia.
From BBS Require Import Common.Sx Rpc.ByteStream Rpc.Batch Rpc.ClientServer
  Rpc.ByteStreamProofs Rpc.BatchProofs Rpc.ClientServerProofs Run.MonSilentSx Run.R14 Run.R14Proofs Run.R14P.
Import ListNotations.
Open Scope Z_scope.

(** a fault is armed with a non-OK code *)
Definition fault_wf (fm code : Z) : Prop := fm <> 0 -> code <> 0.

Section PairProofs.
Variable hashf : bytes -> Z.
Variable decompress : bytes -> dres.
Variable compress : bytes -> bytes.
Hypothesis round_trip : forall x, decompress (compress x) = DOk x.

(** with a clean end of stream the validating consumer only ever objects with
    its own code *)
Lemma vconsume_eof_err src d cs : forall rem acc c,
  vconsume hashf src d rem acc cs REof = inr c -> c = src.
Proof.
  intros rem acc c H. destruct (vconsume_inr _ _ _ _ _ _ _ _ H) as [E|E]; [exact E|discriminate].
Qed.

Definition pair_cs (zstd : bool) (chunk : nat) (pieces : list nat) (x : bytes) : list bytes :=
  if zstd then cut pieces (compress x) else chunks_of chunk x.

Lemma pair_msgs_cs zstd chunk pieces x :
  pair_msgs compress zstd chunk pieces x = client_msgs (pair_cs zstd chunk pieces x).
Proof. unfold pair_msgs, pair_cs. destruct zstd; reflexivity. Qed.

(** The Write RPC over an unarmed backend, for ANY bytes the client is given. *)
Lemma pair_write_spec zstd chunk pieces d x :
  (0 < chunk)%nat -> 0 <= d_size d -> blen x <= backend_max ->
  let r := write hashf decompress 0 (pair_rn zstd d) (pair_msgs compress zstd chunk pieces x) TEof in
  if valid hashf d x then wr_code r = 0 /\ wr_stored r = Some x
  else wr_code r = cInvalidArgument /\ wr_stored r = None.
Proof.
  intros Hc Hs Hm r. unfold r. clear r. rewrite pair_msgs_cs.
  destruct (client_msgs_spec (pair_cs zstd chunk pieces x)) as (H1 & H2 & H3).
  assert (Hx : zstd = false -> concat (pair_cs zstd chunk pieces x) = x).
  { intros ->. unfold pair_cs. apply chunks_of_concat; exact Hc. }
  destruct (valid hashf d x) eqn:Hv.
  - assert (Hd : d_size d <= backend_max).
    { rewrite <- (valid_size _ _ _ Hv). exact Hm. }
    destruct zstd; cbn [pair_rn].
    + rewrite (write_zstd_stores_if hashf decompress d _ x H1 H2);
        [split; reflexivity| |exact Hv|exact Hd].
      rewrite H3. unfold pair_cs. rewrite cut_concat. apply round_trip.
    + rewrite (write_identity_stores_if hashf decompress d _ H1 H2);
        [rewrite H3, Hx by reflexivity; split; reflexivity|rewrite H3, Hx by reflexivity; exact Hv|exact Hd].
  - pose proof (finished_fin_ok _ H2) as Hf.
    set (ms := client_msgs (pair_cs zstd chunk pieces x)) in *. clearbody ms.
    destruct ms as [|first rest]; [cbn in Hf; discriminate|].
    cbn [contiguous fin_ok] in H1, Hf. destruct H1 as [H0 Hc1], Hf as [_ Hf]. rewrite Z.add_0_l in Hc1.
    destruct zstd; cbn [pair_rn write].
    + unfold write_zstd. rewrite H0. cbn [Z.eqb negb].
      destruct (backend_max <? d_size d); [split; reflexivity|].
      rewrite (z_recv_complete rest _ _ Hc1 Hf).
      change (w_data first ++ payload rest) with (payload (first :: rest)).
      rewrite H3. unfold pair_cs. rewrite cut_concat, round_trip, Hv. split; reflexivity.
    + unfold write_identity. rewrite H0. cbn [Z.eqb negb].
      rewrite (id_recv_complete rest _ _ Hc1 Hf).
      set (cs' := if 0 <? blen (w_data first) then w_data first :: map w_data rest else map w_data rest).
      assert (Hp : concat cs' = x).
      { rewrite <- Hx by reflexivity. rewrite <- H3. apply concat_skip_empty. }
      destruct (to_byte_slice hashf cInvalidArgument d backend_max (cs', REof)) as [y|c] eqn:E.
      * apply to_byte_slice_inl in E; [|exact Hs]. destruct E as (_ & Ey & Hvy).
        cbn [fst] in Ey. rewrite Hp in Ey. subst y. rewrite Hv in Hvy. discriminate.
      * unfold to_byte_slice in E. destruct (backend_max <? d_size d).
        -- inversion E. split; reflexivity.
        -- cbn [fst snd] in E. apply vconsume_eof_err in E. subst c. split; reflexivity.
Qed.

(** a backend that releases the buffer and fails: the RPC ends with its code *)
Lemma pair_write_armed zstd chunk pieces d x code :
  code <> 0 ->
  write hashf decompress code (pair_rn zstd d) (pair_msgs compress zstd chunk pieces x) TEof = wfail code.
Proof.
  intro Hcode. rewrite pair_msgs_cs.
  destruct (client_msgs_spec (pair_cs zstd chunk pieces x)) as (H1 & H2 & _).
  pose proof (finished_fin_ok _ H2) as Hf.
  set (ms := client_msgs (pair_cs zstd chunk pieces x)) in *. clearbody ms.
  destruct ms as [|first rest]; [cbn in Hf; discriminate|].
  cbn [contiguous] in H1. destruct H1 as [H0 _]. apply Z.eqb_neq in Hcode.
  destruct zstd; cbn [pair_rn write]; [unfold write_zstd|unfold write_identity];
    rewrite H0; cbn [Z.eqb negb]; rewrite Hcode; reflexivity.
Qed.

Theorem pair_put_is_backend_put zstd chunk pieces st d x fm code :
  (0 < chunk)%nat -> 0 <= d_size d -> blen x <= backend_max -> fault_wf fm code ->
  pair_put hashf decompress compress zstd chunk pieces st d x fm code = backend_put hashf st d x fm code.
Proof.
  intros Hc Hs Hm Hw. unfold pair_put, backend_put.
  pose proof (pair_write_spec zstd chunk pieces d x Hc Hs Hm) as Hspec. cbv zeta in Hspec.
  destruct (fm =? 0) eqn:E0.
  - destruct (valid hashf d x); destruct Hspec as [Hc1 Hs1]; rewrite Hc1, Hs1; reflexivity.
  - destruct (fm =? 1).
    + destruct (valid hashf d x); destruct Hspec as [Hc1 Hs1]; rewrite Hc1; reflexivity.
    + assert (Hcode : code <> 0) by (apply Hw; apply Z.eqb_neq; exact E0).
      rewrite pair_write_armed by exact Hcode. reflexivity.
Qed.

Lemma backend_put_eq st d x fm code :
  fault_wf fm code ->
  exists c, backend_put hashf st d x fm code = (if valid hashf d x && (fm =? 0) then st_put st d x else st, c)
            /\ (c =? 0) = valid hashf d x && (fm =? 0).
Proof.
  intro Hw. unfold backend_put. destruct (fm =? 0) eqn:E0.
  - rewrite andb_true_r. destruct (valid hashf d x); eexists; split; reflexivity.
  - rewrite andb_false_r. apply Z.eqb_neq in E0. apply Hw, Z.eqb_neq in E0.
    destruct (fm =? 1); [destruct (valid hashf d x)|]; eexists; (split; [reflexivity|]);
      [exact E0|reflexivity|exact E0].
Qed.

(** OK iff the data matches the digest and the backend accepted it *)
Theorem backend_put_ok_iff st d x fm code :
  fault_wf fm code ->
  (snd (backend_put hashf st d x fm code) = 0 <-> valid hashf d x = true /\ fm = 0).
Proof.
  intro Hw. destruct (backend_put_eq st d x fm code Hw) as (c & -> & Hc). cbn [snd].
  rewrite <- Z.eqb_eq, Hc, andb_true_iff, Z.eqb_eq. reflexivity.
Qed.

Theorem pair_put_ok_iff zstd chunk pieces st d x fm code :
  (0 < chunk)%nat -> 0 <= d_size d -> blen x <= backend_max -> fault_wf fm code ->
  (snd (pair_put hashf decompress compress zstd chunk pieces st d x fm code) = 0
   <-> valid hashf d x = true /\ fm = 0).
Proof.
  intros Hc Hs Hm Hw. rewrite pair_put_is_backend_put by assumption. apply backend_put_ok_iff, Hw.
Qed.

Theorem pair_put_ok_stores zstd chunk pieces st d x fm code :
  (0 < chunk)%nat -> 0 <= d_size d -> blen x <= backend_max -> fault_wf fm code ->
  snd (pair_put hashf decompress compress zstd chunk pieces st d x fm code) = 0 ->
  fst (pair_put hashf decompress compress zstd chunk pieces st d x fm code) = st_put st d x.
Proof.
  intros Hc Hs Hm Hw H. pose proof H as H'. apply pair_put_ok_iff in H'; try assumption.
  destruct H' as [Hv ->]. rewrite pair_put_is_backend_put by assumption.
  unfold backend_put. cbn [Z.eqb]. rewrite Hv. reflexivity.
Qed.

Theorem backend_put_failed_unchanged st d x fm code :
  snd (backend_put hashf st d x fm code) <> 0 -> fst (backend_put hashf st d x fm code) = st.
Proof.
  unfold backend_put. destruct (fm =? 0); [|destruct (fm =? 1); reflexivity].
  destruct (valid hashf d x); cbn [fst snd]; [intro H; contradiction H; reflexivity|reflexivity].
Qed.

Theorem pair_put_failed_unchanged zstd chunk pieces st d x fm code :
  (0 < chunk)%nat -> 0 <= d_size d -> blen x <= backend_max -> fault_wf fm code ->
  snd (pair_put hashf decompress compress zstd chunk pieces st d x fm code) <> 0 ->
  fst (pair_put hashf decompress compress zstd chunk pieces st d x fm code) = st.
Proof.
  intros Hc Hs Hm Hw. rewrite pair_put_is_backend_put by assumption. apply backend_put_failed_unchanged.
Qed.

Lemma pair_get_is_direct_get zstd chunk st d :
  (0 < chunk)%nat -> d_size d <= backend_max ->
  pair_get hashf decompress compress zstd chunk st d = direct_get hashf st d.
Proof.
  intros Hc Hm. apply (client_get_validating hashf decompress compress round_trip); [reflexivity|exact Hc|exact Hm].
Qed.

End PairProofs.

Definition op_wf14P (blobs : list bytes) (op : sx) : Prop :=
  let k := sx_Z (sx_nth op 0) in
  if k =? 0 then 0 <= sx_Z (sx_nth op 2)
                 /\ blen (blob blobs (sx_Z (sx_nth op 5))) <= backend_max
                 /\ fault_wf (sx_Z (sx_nth op 3)) (sx_Z (sx_nth op 4))
  else if k =? 1 then sx_Z (sx_nth op 2) <= backend_max
  else Forall (fun e => 0 <= sx_Z (sx_nth e 1)) (sx_list (sx_nth op 1)).

Definition inp_wf14P (inp : sx) : Prop :=
  (0 < sx_nat (sx_nth inp 2))%nat
  /\ Forall (op_wf14P (dec_blobs (sx_nth inp 0))) (sx_list (sx_nth inp 3)).

Section Histories.
Variable hashf : bytes -> Z.
Variable decompress : bytes -> dres.
Variable compress : bytes -> bytes.
Hypothesis round_trip : forall x, decompress (compress x) = DOk x.

Lemma p_op_pair_backend blobs zstd chunk st op :
  (0 < chunk)%nat -> op_wf14P blobs op ->
  p_op blobs (pair_put hashf decompress compress zstd chunk []) (pair_get hashf decompress compress zstd chunk) st op
  = p_op blobs (backend_put hashf) (direct_get hashf) st op.
Proof.
  intros Hc Hwf. unfold op_wf14P in Hwf. cbv zeta in Hwf. unfold p_op.
  destruct (sx_Z (sx_nth op 0) =? 0).
  - destruct Hwf as (Hs & Hm & Hw).
    rewrite (pair_put_is_backend_put hashf decompress compress round_trip) by (cbn [dec_dig d_size]; assumption).
    reflexivity.
  - destruct (sx_Z (sx_nth op 0) =? 1); [|reflexivity].
    rewrite (pair_get_is_direct_get hashf decompress compress round_trip) by (cbn [dec_dig d_size]; assumption).
    reflexivity.
Qed.

Theorem p_ops_pair_backend blobs zstd chunk : (0 < chunk)%nat ->
  forall ops st, Forall (op_wf14P blobs) ops ->
  p_ops blobs (pair_put hashf decompress compress zstd chunk []) (pair_get hashf decompress compress zstd chunk) st ops
  = p_ops blobs (backend_put hashf) (direct_get hashf) st ops.
Proof.
  intros Hc. induction ops as [|op ops IH]; intros st Hwf; [reflexivity|].
  inversion Hwf as [|? ? Hop Hops]. subst. cbn [p_ops].
  rewrite (p_op_pair_backend blobs zstd chunk st op Hc Hop).
  destruct (p_op blobs (backend_put hashf) (direct_get hashf) st op) as [st1 r].
  rewrite (IH st1 Hops). reflexivity.
Qed.

End Histories.

(** the judge's model of the pair is the armed backend used directly *)
Theorem run14P_is_backend inp : inp_wf14P inp -> run14P inp = run14P_backend inp.
Proof.
  intros [Hc Hwf]. unfold run14P, run14P_backend.
  rewrite (p_ops_pair_backend _ fdecompress fcompress fround_trip _ _ _ Hc _ _ Hwf). reflexivity.
Qed.

Lemma mon_p_op_backend blobs st op st1 r :
  st_valid blobs st -> op_wf14P blobs op ->
  p_op blobs (backend_put (hash_of blobs)) (direct_get (hash_of blobs)) st op = (st1, r) ->
  mon_p_op blobs st op r = ([], st1) /\ st_valid blobs st1.
Proof.
  intros Hst Hwf. unfold op_wf14P in Hwf. cbv zeta in Hwf. unfold p_op, mon_p_op.
  destruct (sx_Z (sx_nth op 0) =? 0) eqn:E0.
  - (* Put *)
    destruct Hwf as (_ & _ & Hw).
    destruct (backend_put_eq (hash_of blobs) st (dec_dig blobs (sx_nth op 1) (sx_nth op 2))
                (blob blobs (sx_Z (sx_nth op 5))) _ _ Hw) as (c & -> & Hc).
    intro E. inversion E. subst st1 r. rewrite !sx_nth_L. cbn [nth sx_Z]. rewrite Hc, Z.eqb_refl.
    destruct (valid (hash_of blobs) _ _ && _) eqn:Hb; cbn [andb orb negb cl app];
      rewrite ?andb_false_r; (split; [reflexivity|]); [|exact Hst].
    apply andb_prop in Hb. destruct Hb as [Hv _]. apply st_put_valid; assumption.
  - destruct (sx_Z (sx_nth op 0) =? 1) eqn:E1.
    + (* Get *)
      unfold direct_get, backend_get.
      destruct (st_get st (dec_dig blobs (sx_nth op 1) (sx_nth op 2))) as [y|] eqn:Eg.
      * assert (Hv : valid (hash_of blobs) (dec_dig blobs (sx_nth op 1) (sx_nth op 2)) y = true)
          by (eapply Hst, st_get_some; eauto).
        rewrite Hv. intro E. inversion E. subst st1 r. rewrite !sx_nth_L. cbn [nth sx_Z].
        rewrite sx_Zs_of_Zs, bytes_eqb_refl. cbn. split; [reflexivity|exact Hst].
      * intro E. inversion E. subst st1 r. rewrite !sx_nth_L. cbn. split; [reflexivity|exact Hst].
    + (* FindMissing *)
      set (ds := map (fun e => dec_dig blobs (sx_nth e 0) (sx_nth e 1)) (sx_list (sx_nth op 1))) in *.
      rewrite (find_missing_answers (missing_in st) ds) by (apply Forall_map; exact Hwf).
      intro E. inversion E. subst st1 r. rewrite !sx_nth_L. cbn [nth sx_Z sx_list Z.eqb andb].
      destruct (fm_generic ds (missing_in st) _ (sx_seteq_refl _)) as [G1 G2].
      rewrite G1, G2. cbn. split; [reflexivity|exact Hst].
Qed.

Lemma mon_p_ops_backend blobs : forall ops st,
  st_valid blobs st -> Forall (op_wf14P blobs) ops ->
  mon_p_ops blobs st ops (snd (p_ops blobs (backend_put (hash_of blobs)) (direct_get (hash_of blobs)) st ops))
  = ([], fst (p_ops blobs (backend_put (hash_of blobs)) (direct_get (hash_of blobs)) st ops)).
Proof.
  induction ops as [|op ops IH]; intros st Hst Hwf; [reflexivity|].
  inversion Hwf as [|? ? Hop Hops]. subst. cbn [p_ops].
  destruct (p_op blobs (backend_put (hash_of blobs)) (direct_get (hash_of blobs)) st op) as [st1 r] eqn:E.
  destruct (mon_p_op_backend blobs st op st1 r Hst Hop E) as [Hm Hst1]. specialize (IH st1 Hst1 Hops).
  destruct (p_ops blobs (backend_put (hash_of blobs)) (direct_get (hash_of blobs)) st1 ops) as [st2 rs].
  cbn [fst snd] in *. cbn [mon_p_ops]. rewrite Hm, IH. reflexivity.
Qed.

Lemma st_valid_nil blobs : st_valid blobs [].
Proof. intros d y []. Qed.

Theorem mon14P_silent_on_backend inp : inp_wf14P inp -> mon14P inp (run14P_backend inp) = [].
Proof.
  intros [_ Hwf]. unfold mon14P, run14P_backend.
  pose proof (mon_p_ops_backend (dec_blobs (sx_nth inp 0)) _ [] (st_valid_nil _) Hwf) as Hm.
  destruct (p_ops (dec_blobs (sx_nth inp 0)) (backend_put (hash_of (dec_blobs (sx_nth inp 0))))
                  (direct_get (hash_of (dec_blobs (sx_nth inp 0)))) [] (sx_list (sx_nth inp 3))) as [st rs].
  cbn [fst snd] in Hm. rewrite !sx_nth_L. cbn [nth sx_list]. rewrite Hm. cbn [app].
  unfold enc_final. rewrite map_length, Nat.eqb_refl, sx_seteq_refl. reflexivity.
Qed.

Theorem mon14P_silent_on_model inp : inp_wf14P inp -> mon14P inp (run14P inp) = [].
Proof. intro Hwf. rewrite run14P_is_backend by exact Hwf. apply mon14P_silent_on_backend, Hwf. Qed.

Lemma p_res_all_refl blobs : forall ops ms, length ops = length ms -> p_res_all blobs ops ms ms = true.
Proof.
  induction ops as [|op ops IH]; intros [|m ms] H; try discriminate; [reflexivity|].
  cbn [p_res_all]. rewrite IH by (cbn in H; lia). rewrite andb_true_r. unfold p_res_eqb.
  rewrite !sx_eqb_refl, sx_seteq_refl. cbn [orb andb].
  destruct (sx_Z (sx_nth op 0) =? 2); [reflexivity|]. destruct (early_end blobs op); reflexivity.
Qed.

Lemma p_ops_length blobs put get : forall ops st, length (snd (p_ops blobs put get st ops)) = length ops.
Proof.
  induction ops as [|op ops IH]; intro st; [reflexivity|]. cbn [p_ops].
  destruct (p_op blobs put get st op) as [st1 r]. specialize (IH st1).
  destruct (p_ops blobs put get st1 ops) as [st2 rs]. cbn [snd length] in *. rewrite IH. reflexivity.
Qed.

(** the model's own output is accepted by the judge *)
Theorem agree14P_model inp : agree14P inp (run14P inp) (run14P inp) = true.
Proof.
  unfold agree14P, run14P.
  pose proof (p_ops_length (dec_blobs (sx_nth inp 0))
    (pair_put (hash_of (dec_blobs (sx_nth inp 0))) fdecompress fcompress (mode_zstd (sx_Z (sx_nth inp 1))) (sx_nat (sx_nth inp 2)) [])
    (pair_get (hash_of (dec_blobs (sx_nth inp 0))) fdecompress fcompress (mode_zstd (sx_Z (sx_nth inp 1))) (sx_nat (sx_nth inp 2)))
    (sx_list (sx_nth inp 3)) []) as Hl.
  destruct (p_ops _ _ _ [] (sx_list (sx_nth inp 3))) as [st rs]. cbn [snd] in Hl.
  rewrite !sx_nth_L. cbn [nth sx_list].
  rewrite p_res_all_refl by (symmetry; exact Hl). rewrite Nat.eqb_refl, sx_seteq_refl. reflexivity.
Qed.
