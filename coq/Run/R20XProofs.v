(** C20X — proofs about set programs (Run/R20X.v): every instruction of every
    program over sets drawn from a universe of valid digests yields exactly the
    mathematical result, sorted and duplicate-free; the monitor is silent on the model. *)
From Coq Require Import List NArith ZArith Bool Lia.
Import ListNotations.
From BBS Require Import Common.Sx Digest.DigestModel Digest.SetModel Digest.SetProofs Run.MonSilentSx Run.R20 Run.R20Proofs Run.R20X.
Open Scope Z_scope.

(** a set of the environment: strictly increasing (hence duplicate-free) and drawn
    from the universe *)
Definition in_univ (ds : list digest) (s : list bytes) : Prop :=
  sorted s /\ forall x, In x s -> In x (map pack ds).

Definition instr_spec (env : list (list bytes)) (ins : instr) (outs : list (list bytes)) : Prop :=
  match ins with
  | IDiff i j => exists oa bo ob, outs = [oa; bo; ob] /\
      (forall x, In x oa <-> In x (env_get env i) /\ ~ In x (env_get env j)) /\
      (forall x, In x bo <-> In x (env_get env i) /\ In x (env_get env j)) /\
      (forall x, In x ob <-> In x (env_get env j) /\ ~ In x (env_get env i))
  | IUnion ixs => exists u, outs = [u] /\ forall x, In x u <-> exists i, In i ixs /\ In x (env_get env i)
  | IPart i => exists dl, env_get env i = map pack dl /\
      outs = map (fun k => map pack (filter (fun d => beqb (d_inst d) k) dl)) (firsts beqb (map d_inst dl))
  | IRem i => exists dl, env_get env i = map pack dl /\
      outs = [map pack (filter (fun d => negb (Z.eqb (d_size d) 0)) dl)]
  | INop => outs = []
  end.

(** every instruction of the trace succeeded with the specified outputs, which are
    again sets of the universe *)
Fixpoint trace_spec (ds : list digest) (env : list (list bytes)) (p : list instr)
         (tr : list (outcome (list (list bytes)))) : Prop :=
  match p, tr with
  | [], [] => True
  | ins :: p', o :: tr' =>
      exists outs, o = Ok outs /\ instr_spec env ins outs /\ Forall (in_univ ds) outs /\
                   trace_spec ds (env ++ outs) p' tr'
  | _, _ => False
  end.

Lemma in_univ_nil ds : in_univ ds [].
Proof. split; [constructor|intros x []]. Qed.

Lemma in_univ_get ds env i : Forall (in_univ ds) env -> in_univ ds (env_get env i).
Proof.
  intro H. unfold env_get. destruct (Nat.lt_ge_cases i (length env)) as [Hl|Hl].
  - rewrite Forall_forall in H. apply H, nth_In, Hl.
  - rewrite nth_overflow by exact Hl. apply in_univ_nil.
Qed.

Lemma in_univ_digests ds s : in_univ ds s ->
  exists dl, s = map pack dl /\ Forall (fun d => In d ds) dl.
Proof. intros [_ H]. apply members. exact H. Qed.

Lemma in_univ_filter ds dl (p : digest -> bool) :
  in_univ ds (map pack dl) -> in_univ ds (map pack (filter p dl)).
Proof.
  intros [S M]. split; [apply sorted_map_filter, S|]. intros x Hx. apply M.
  apply in_map_iff in Hx. destruct Hx as (d & <- & Hd). apply filter_In in Hd. apply in_map, Hd.
Qed.

Lemma env_digests ds env i :
  Forall valid_digest ds -> Forall (in_univ ds) env ->
  exists dl, env_get env i = map pack dl /\ Forall (fun d => In d ds) dl /\ Forall valid_digest dl
             /\ in_univ ds (map pack dl).
Proof.
  intros V He. pose proof (in_univ_get ds env i He) as U.
  destruct (in_univ_digests ds _ U) as (dl & Edl & Hdl). rewrite Edl in U.
  exists dl. repeat split; try assumption; [exact (Forall_valid ds dl V Hdl)|apply U|apply U].
Qed.

Lemma exec_instr_spec ds env ins :
  Forall valid_digest ds -> Forall (in_univ ds) env ->
  exists outs, exec_instr env ins = Ok outs /\ instr_spec env ins outs /\ Forall (in_univ ds) outs.
Proof.
  intros V He. destruct ins as [i j|ixs|i|i|]; cbn [exec_instr instr_spec].
  - destruct (in_univ_get ds env i He) as [Sa Ma]. destruct (in_univ_get ds env j He) as [Sb Mb].
    pose proof (diff_inter_spec_proof _ _ Sa Sb) as D.
    destruct (diff_inter (env_get env i) (env_get env j)) as [[oa bo] ob].
    destruct D as ((S1 & S2 & S3) & M1 & M2 & M3).
    exists [oa; bo; ob]. split; [reflexivity|]. split.
    + exists oa, bo, ob. split; [reflexivity|]. split; [exact M1|]. split; [exact M2|exact M3].
    + repeat constructor; try assumption; intros x Hx.
      * apply M1 in Hx. apply Ma, Hx.
      * apply M2 in Hx. apply Ma, Hx.
      * apply M3 in Hx. apply Mb, Hx.
  - assert (Hs : Forall sorted (map (env_get env) ixs)).
    { apply Forall_forall. intros s Hs. apply in_map_iff in Hs. destruct Hs as (i & <- & _).
      apply (in_univ_get ds env i He). }
    destruct (union_spec_proof _ Hs) as (Su & _ & Mu).
    exists [union (map (env_get env) ixs)]. split; [reflexivity|]. split.
    + eexists. split; [reflexivity|]. intro x. rewrite Mu. split.
      * intros (s & Hin & Hx). apply in_map_iff in Hin. destruct Hin as (i & <- & Hi). exists i. tauto.
      * intros (i & Hi & Hx). exists (env_get env i). split; [apply in_map, Hi|exact Hx].
    + constructor; [|constructor]. split; [exact Su|]. intros x Hx. apply Mu in Hx.
      destruct Hx as (s & Hin & Hx). apply in_map_iff in Hin. destruct Hin as (i & <- & _).
      apply (in_univ_get ds env i He), Hx.
  - destruct (env_digests ds env i V He) as (dl & Edl & _ & Vdl & U).
    rewrite Edl, (partition_spec_proof dl Vdl). eexists. split; [reflexivity|]. split.
    + exists dl. split; reflexivity.
    + apply Forall_forall. intros p Hp. apply in_map_iff in Hp. destruct Hp as (k & <- & _).
      apply in_univ_filter, U.
  - destruct (env_digests ds env i V He) as (dl & Edl & _ & Vdl & U).
    rewrite Edl. destruct (remove_empty_spec_proof dl Vdl (proj1 U)) as (r & -> & _ & ->).
    cbn [bind]. eexists. split; [reflexivity|]. split.
    + exists dl. split; reflexivity.
    + constructor; [apply in_univ_filter, U|constructor].
  - exists []. split; [reflexivity|]. split; [reflexivity|constructor].
Qed.

Lemma in_univ_app ds env outs : Forall (in_univ ds) env -> Forall (in_univ ds) outs -> Forall (in_univ ds) (env ++ outs).
Proof. intros. apply Forall_app. split; assumption. Qed.

Theorem exec_prog_spec ds : Forall valid_digest ds ->
  forall p env, Forall (in_univ ds) env -> trace_spec ds env p (exec_prog env p).
Proof.
  intro V. induction p as [|ins p IH]; intros env He; cbn [exec_prog trace_spec]; [exact I|].
  destruct (exec_instr_spec ds env ins V He) as (outs & -> & Hs & Ho).
  exists outs. repeat split; try assumption. cbn [env_after]. apply IH, in_univ_app; assumption.
Qed.

Theorem final_env_in_univ ds : Forall valid_digest ds ->
  forall p env, Forall (in_univ ds) env -> Forall (in_univ ds) (final_env env p).
Proof.
  intro V. induction p as [|ins p IH]; intros env He; cbn [final_env]; [exact He|].
  destruct (exec_instr_spec ds env ins V He) as (outs & -> & _ & Ho).
  cbn [env_after]. apply IH, in_univ_app; assumption.
Qed.

Lemma built_in_univ ds sets :
  Forall (fun s => Forall (fun i => (i < length ds)%nat) (sx_nats s)) (sx_list sets) ->
  Forall (in_univ ds) (built_of (map pack ds) sets).
Proof.
  intro H. apply Forall_forall. intros s Hs. split; [|intro x; exact (built_members ds sets s x H Hs)].
  apply in_map_iff in Hs. destruct Hs as (s0 & <- & _). apply build_spec_proof.
Qed.

Lemma dec_sets_enc l : dec_sets (enc_sets l) = l.
Proof. exact (dec_enc_sets l). Qed.

Section Silent.
  Variable ds : list digest.
  Hypothesis V : Forall valid_digest ds.
  Local Notation entries := (map enc_entry ds).
  Local Notation us := (map pack ds).

  Lemma check_instr_silent env ins :
    Forall (in_univ ds) env ->
    check_instr entries us env ins (enc_out enc_sets (exec_instr env ins)) = [].
  Proof.
    intro He. destruct (exec_instr_spec ds env ins V He) as (outs & Ex & Hs & Ho).
    destruct ins as [i j|ixs|i|i|]; cbn [instr_spec] in Hs; unfold check_instr.
    - rewrite Ex. cbn [enc_out ok_val]. rewrite dec_sets_enc.
      destruct Hs as (oa & bo & ob & -> & M1 & M2 & M3).
      inversion Ho as [|? ? [S1 _] Ho1]; subst. inversion Ho1 as [|? ? [S2 _] Ho2]; subst.
      inversion Ho2 as [|? ? [S3 _] _]; subst.
      rewrite (diff_ok_spec _ _ _ _ _ S1 S2 S3 M1 M2 M3). reflexivity.
    - rewrite Ex. cbn [enc_out ok_val]. rewrite dec_sets_enc.
      destruct Hs as (u & -> & Mu). inversion Ho as [|? ? [Su _] _]; subst.
      apply flag_false, negb_false_iff. rewrite (strictly_sorted_of _ Su). cbn [andb].
      apply same_set_intro. intro x. rewrite Mu, in_concat. split.
      + intros (k & Hk & Hx). exists (env_get env k). split; [apply in_map, Hk|exact Hx].
      + intros (s & Hin & Hx). apply in_map_iff in Hin. destruct Hin as (k & <- & Hk). exists k. tauto.
    - destruct (env_digests ds env i V He) as (dl & Edl & Hdl & _).
      cbn [exec_instr]. rewrite Edl.
      pose proof (c13_false ds V dl Hdl) as H13. unfold c13 in H13.
      apply flag_false. exact H13.
    - destruct (env_digests ds env i V He) as (dl & Edl & Hdl' & Vdl & U).
      cbn [exec_instr]. rewrite Edl.
      destruct (remove_empty_spec_proof dl Vdl (proj1 U)) as (r & -> & _ & ->). cbn [bind enc_out].
      apply flag_false, negb_false_iff.
      rewrite (filter_size_of ds V dl Hdl'). apply sx_eqb_refl.
    - rewrite Ex. cbn [enc_out ok_val]. rewrite dec_sets_enc. subst outs. reflexivity.
  Qed.
End Silent.

Section Silent2.
  Variable ds : list digest.
  Hypothesis V : Forall valid_digest ds.
  Local Notation entries := (map enc_entry ds).
  Local Notation us := (map pack ds).

  Lemma mon_prog_silent : forall p env,
    Forall (in_univ ds) env ->
    mon_prog entries us env p (map (enc_out enc_sets) (exec_prog env p)) = [].
  Proof.
    induction p as [|ins p IH]; intros env He; cbn [exec_prog map mon_prog]; [reflexivity|].
    rewrite (check_instr_silent ds V env ins He).
    destruct (exec_instr_spec ds env ins V He) as (outs & Ex & _ & Ho). rewrite Ex.
    cbn [enc_out is_ok ok_val env_after app]. rewrite dec_sets_enc.
    apply IH, in_univ_app; assumption.
  Qed.

  Lemma keys_bad_false : keys_bad entries us = false.
  Proof.
    unfold keys_bad. rewrite !map_length, Nat.eqb_refl. cbn [negb]. rewrite orb_false_r.
    apply negb_false_iff, forallb_forall. intros i Hi. apply forallb_forall. intros j Hj.
    apply in_seq in Hi. apply in_seq in Hj.
    set (d0 := {| d_fn := 0%N; d_hash := []; d_size := 0; d_inst := [] |}).
    rewrite (nth_map_lt pack ds i d0 []), (nth_map_lt pack ds j d0 []) by lia.
    rewrite (nth_map_lt enc_entry ds i d0 (L [])), (nth_map_lt enc_entry ds j d0 (L [])) by lia.
    apply entry_key_agree; apply (valid_in ds V), nth_In; lia.
  Qed.
End Silent2.

(** The universe is a list of canonically written valid digests, the initial sets
    are lists of indices into it (as for kind 6 of C20); no condition on the program. *)
Definition inp_wf20X (inp : sx) : Prop :=
  exists ds, Forall valid_digest ds /\ sx_list (sx_nth inp 0) = map enc_entry ds
    /\ Forall (fun s => Forall (fun i => (i < length ds)%nat) (sx_nats s)) (sx_list (sx_nth inp 1)).

Theorem mon20X_silent_on_model_proof inp : inp_wf20X inp -> mon20X inp (run20X inp) = [].
Proof.
  intros (ds & V & Hent & Hsets). unfold run20X. rewrite Hent, (map_outcome_entries ds V).
  cbv zeta. unfold mon20X. match goal with |- nodup _ ?m = [] => assert (E : m = []); [|rewrite E; reflexivity] end.
  unfold mon20X_raw. rewrite !sx_nth_L. cbn [nth]. rewrite Hent, dec_enc_list, dec_sets_enc.
  rewrite (keys_bad_false ds V), built_bad_false. cbn [flag app].
  apply mon_prog_silent; [exact V|]. apply built_in_univ. exact Hsets.
Qed.

Lemma run20X_eq inp ds :
  Forall valid_digest ds -> sx_list (sx_nth inp 0) = map enc_entry ds ->
  run20X inp = L [enc_list (map pack ds); enc_sets (built_of (map pack ds) (sx_nth inp 1));
                  L (map (enc_out enc_sets)
                         (exec_prog (built_of (map pack ds) (sx_nth inp 1)) (map dec_instr (sx_list (sx_nth inp 2)))))].
Proof. intros V Hent. unfold run20X. rewrite Hent, (map_outcome_entries ds V). reflexivity. Qed.
