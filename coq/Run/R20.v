(** C20: sx interface of the pkg/digest model (decoders, run, monitor, judge).

    Input kinds (first atom):
      (0 path)                          NewDigestFromByteStreamReadPath
      (1 path uuid16)                   NewDigestFromByteStreamWritePath
      (2 name)                          NewInstanceName (+ GetComponents, NewInstanceNameFromComponents)
      (3 inst fn hash size comp uuid16) structured digest: construct, all getters, all round trips
      (4 inst bytes)                    NewDigestFromCompactBinary
      (6 universe sets)                 set operations; universe entry = (inst fn hash size), set = indices
    Outcomes are encoded as (0 value) | (code) | (-1) for a panic; (-2) = step skipped. *)
From BBS Require Import Common.Sx Generated.Consts Digest.DigestModel Digest.SetModel.
Open Scope Z_scope.

Definition enc_bytes (b : bytes) : sx := of_Ns b.
Definition enc_out {T} (f : T -> sx) (o : outcome T) : sx :=
  match o with Ok x => L [A 0; f x] | Err c => L [A c] | Panic => L [A (-1)] end.
Definition skipped : sx := L [A (-2)].
Definition enc_list (l : list bytes) : sx := L (map enc_bytes l).
Definition enc_parse (o : outcome (bytes * N)) : sx :=
  enc_out (fun p => L [enc_bytes (fst p); of_N (snd p)]) o.

(** everything observable about one digest *)
Definition enc_dobs (v : bytes) : sx :=
  L [enc_bytes v;
     enc_out of_N (get_function_enum v);
     enc_out enc_bytes (get_hash_string v);
     enc_out A (get_size_bytes v);
     enc_out enc_bytes (get_instance_name v);
     enc_out enc_bytes (get_key v 0);
     enc_out (fun p => L [enc_bytes (fst p); A (snd p)]) (get_proto v);
     enc_out enc_bytes (get_hash_bytes v);
     enc_out enc_bytes (get_compact_binary v);
     enc_out enc_list (get_parents v)].

(** uuid.UUID.String() *)
Definition uuid_string (u : bytes) : bytes :=
  let h := hex_encode u in
  firstn 8 h ++ dash :: firstn 4 (skipn 8 h) ++ dash :: firstn 4 (skipn 12 h) ++ dash
    :: firstn 4 (skipn 16 h) ++ dash :: skipn 20 h.

Definition after_format (fmt : outcome bytes) (parse : bytes -> outcome (bytes * N)) : sx :=
  match fmt with Ok s => enc_parse (parse s) | _ => skipped end.

Definition run_parse (parse : bytes -> outcome (bytes * N)) (fmt : bytes -> N -> outcome bytes) (path : bytes) : sx :=
  match parse path with
  | Ok (v, c) => L [A 0; enc_dobs v; of_N c; enc_out enc_bytes (fmt v c); after_format (fmt v c) parse]
  | Err c => L [A c]
  | Panic => L [A (-1)]
  end.

Definition run_instance_name (name : bytes) : sx :=
  match new_instance_name name with
  | Ok v => L [A 0; enc_bytes v; enc_list (fields_by_slash v);
               enc_out enc_bytes (new_instance_name_from_components (fields_by_slash v))]
  | Err c => L [A c]
  | Panic => L [A (-1)]
  end.

Definition trailing_garbage : bytes := [200%N; 1%N].

Definition run_structured (inst : bytes) (fn : N) (hash : bytes) (size : Z) (comp : N) (uuid : bytes) : sx :=
  match new_instance_name inst with
  | Panic => L [A (-1)]
  | Err c => L [A 1; A c]
  | Ok inm =>
      match get_digest_function fn (N.of_nat (length hash)) with
      | Panic => L [A (-1)]
      | Err c => L [A 2; A c]
      | Ok f =>
          match new_digest inm f hash size with
          | Panic => L [A (-1)]
          | Err c => L [A 3; A c]
          | Ok v =>
              let rp := get_read_path v comp in
              let wp := get_write_path v (uuid_string uuid) comp in
              L [A 0; enc_dobs v;
                 enc_out enc_bytes rp; after_format rp parse_read_path;
                 enc_out enc_bytes wp; after_format wp parse_write_path;
                 match get_proto v with
                 | Ok (h, s) => enc_out enc_bytes (new_digest inm f h s)
                 | _ => skipped
                 end;
                 match get_compact_binary v with
                 | Ok b => enc_out (fun p => L [enc_bytes (fst p); of_nat (length (snd p))])
                                   (new_digest_from_compact_binary inm (b ++ trailing_garbage))
                 | _ => skipped
                 end]
          end
      end
  end.

Definition run_compact (inst inp : bytes) : sx :=
  match new_instance_name inst with
  | Panic => L [A (-1)]
  | Err c => L [A 1; A c]
  | Ok inm =>
      match new_digest_from_compact_binary inm inp with
      | Ok (v, rest) => L [A 0; enc_dobs v; of_nat (length rest)]
      | Err c => L [A c]
      | Panic => L [A (-1)]
      end
  end.

(** universe entry -> packed digest *)
Definition dec_entry (e : sx) : outcome bytes :=
  let inst := sx_Ns (sx_nth e 0) in
  let hash := sx_Ns (sx_nth e 2) in
  inm <- new_instance_name inst ;;
  f <- get_digest_function (sx_N (sx_nth e 1)) 0 ;;
  new_digest inm f hash (sx_Z (sx_nth e 3)).

Definition enc_sets (l : list (list bytes)) : sx := L (map enc_list l).

Definition run_sets (universe sets : sx) : sx :=
  match map_outcome dec_entry (sx_list universe) with
  | Ok us =>
      let pick (s : sx) : list bytes := map (fun i => nth i us []) (sx_nats s) in
      let built := map (fun s => build (pick s)) (sx_list sets) in
      let u := union built in
      let a := nth 0 built [] in
      let b := nth 1 built [] in
      let '(oa, bo, ob) := diff_inter a b in
      L [enc_list us;
         L (map (fun v => enc_out enc_bytes (get_key v 0)) us);
         enc_sets built;
         enc_list u;
         L [enc_list oa; enc_list bo; enc_list ob];
         enc_out enc_sets (partition_by_instance_name u);
         enc_out enc_list (remove_empty_blob u);
         L (map (fun s => of_option enc_bytes (first s)) built);
         match partition_by_instance_name u with
         | Ok ps => enc_list (union ps)
         | _ => skipped
         end]
  | _ => L [A (-9)]
  end.

Definition run20 (inp : sx) : sx :=
  let b i := sx_Ns (sx_nth inp i) in
  match sx_Z (sx_nth inp 0) with
  | 0 => run_parse parse_read_path get_read_path (b 1%nat)
  | 1 => run_parse parse_write_path (fun v c => get_write_path v (uuid_string (b 2%nat)) c) (b 1%nat)
  | 2 => run_instance_name (b 1%nat)
  | 3 => run_structured (b 1%nat) (sx_N (sx_nth inp 2)) (b 3%nat) (sx_Z (sx_nth inp 4)) (sx_N (sx_nth inp 5)) (b 6%nat)
  | 4 => run_compact (b 1%nat) (b 2%nat)
  | 6 => run_sets (sx_nth inp 1) (sx_nth inp 2)
  | _ => L [A (-9)]
  end.

(** ** Monitor: the property, as a check on the implementation's observation.
    It is phrased over byte order, membership and the literal tables; the string
    helpers it calls ([fields_by_slash], [has_prefix], [hex_encode], [join_slash],
    ...) are those of Digest/DigestModel.v, shared with the model. *)

Fixpoint has_panic (s : sx) : bool :=
  match s with
  | A z => z =? -1
  | L l => (fix go (l : list sx) : bool := match l with [] => false | x :: r => has_panic x || go r end) l
  end.

Definition is_ok (s : sx) : bool := match s with L [A 0; _] => true | _ => false end.
Definition ok_val (s : sx) : sx := match s with L [A 0; x] => x | _ => L [] end.
Definition sxb (s : sx) : bytes := sx_Ns s.

Fixpoint strictly_sorted (l : list bytes) : bool :=
  match l with
  | [] => true
  | x :: r => match r with [] => true | y :: _ => bltb x y && strictly_sorted r end
  end.
Definition subset (a b : list bytes) : bool := forallb (fun x => memb x b) a.
Definition same_set (a b : list bytes) : bool := subset a b && subset b a.

(** specification of a valid instance name, written on the string *)
Definition spec_components (s : bytes) : list bytes := fields_by_slash s.
Definition inst_wf (s : bytes) : bool :=
  negb (has_prefix [slash] s) && negb (has_suffix [slash] s) && negb (contains [slash; slash] s)
  && forallb (fun c => negb (memb c c20_reserved)) (spec_components s).

Definition hash_size_of (fn : N) : option N :=
  match assoc fn c20_bare_by_enum with Some f => Some (snd f) | None => None end.
Definition is_supported (fn : N) : bool := existsb (fun p => N.eqb (fst p) fn) c20_supported.
Definition valid_comp (c : N) : bool :=
  N.eqb c c20_compressor_identity || existsb (fun p => N.eqb (fst p) c) c20_compressors.

(** a digest observation describes a non-degenerate digest *)
Definition dobs_wf (d : sx) : bool :=
  let fn := sx_N (ok_val (sx_nth d 1)) in
  let hash := sxb (ok_val (sx_nth d 2)) in
  let size := sx_Z (ok_val (sx_nth d 3)) in
  let inst := sxb (ok_val (sx_nth d 4)) in
  is_ok (sx_nth d 1) && is_ok (sx_nth d 2) && is_ok (sx_nth d 3) && is_ok (sx_nth d 4)
  && is_supported fn
  && match hash_size_of fn with Some hb => N.eqb (N.of_nat (length hash)) (2 * hb) | None => false end
  && forallb lowerhex hash && (0 <=? size) && (size <? 2 ^ 63) && inst_wf inst.

(** the getters of one digest agree with each other and with the fields *)
Definition seq_prefixes {T} (l : list T) : list (list T) := map (fun n => firstn n l) (seq 0 (S (length l))).
Definition dobs_consistent (d : sx) : bool :=
  let key1 := sxb (sx_nth d 0) in
  let fn := sx_N (ok_val (sx_nth d 1)) in
  let hash := sxb (ok_val (sx_nth d 2)) in
  let size := sx_Z (ok_val (sx_nth d 3)) in
  let inst := sxb (ok_val (sx_nth d 4)) in
  let key0 := sxb (ok_val (sx_nth d 5)) in
  let proto := ok_val (sx_nth d 6) in
  let want0 := dec fn ++ dash :: hash ++ dash :: dec (Z.to_N size) in
  beqb key0 want0 && beqb key1 (want0 ++ dash :: inst)
  && beqb (sxb (sx_nth proto 0)) hash && (sx_Z (sx_nth proto 1) =? size)
  && beqb (hex_encode (sxb (ok_val (sx_nth d 7)))) hash
  (* ancestors: exactly the chain of component prefixes *)
  && sx_eqb (ok_val (sx_nth d 9))
            (enc_list (map (fun p => want0 ++ dash :: join_slash p) (seq_prefixes (spec_components inst)))).

Definition flag (n : Z) (bad : bool) : list Z := if bad then [n] else [].

(** clauses: 1 getters disagree with the constructed fields; 2 read path round trip;
    3 write path round trip; 4 proto round trip; 5 compact binary round trip;
    6 key equality iff fields agree; 7 ancestors / getter consistency; 8 a degenerate
    digest or instance name was accepted; 9 panic; 10 Build; 11 GetUnion;
    12 GetDifferenceAndIntersection; 13 PartitionByInstanceName; 14 RemoveEmptyBlob;
    15 First; 16 a valid input was rejected; 17 an accepted resource name does not contain
    the hash and the decimal size of the digest it was parsed to *)

Definition head_is0 (obs : sx) : bool := match obs with L (A 0 :: _) => true | _ => false end.

(** [s] is a plain decimal numeral (optional sign, at least one digit, digits only) denoting [z] *)
Definition decimal_of (s : bytes) (z : Z) : bool :=
  let '(neg, ds) := match s with
                    | c :: r => if N.eqb c 43 then (false, r) else if N.eqb c dash then (true, r) else (false, s)
                    | [] => (false, []) end in
  nonempty ds && forallb is_digit ds
  && (Z.eqb (if neg then - Z.of_N (horner 0 ds) else Z.of_N (horner 0 ds)) z).
Fixpoint adjacent_fields (hash : bytes) (size : Z) (fs : list bytes) : bool :=
  match fs with
  | h :: ((s :: _) as r) => (beqb h hash && decimal_of s size) || adjacent_fields hash size r
  | _ => false
  end.

(** parse cases: obs = (0 dobs comp formatted reparsed) *)
Definition mon_parse (clause : Z) (path : bytes) (obs : sx) : list Z :=
  flag 9 (has_panic obs) ++
  (if head_is0 obs then
     let d := sx_nth obs 1 in
     flag 8 (negb (dobs_wf d)) ++ flag 7 (dobs_wf d && negb (dobs_consistent d)) ++
     (* the accepted name really contains "<hash>/<decimal size>" of the digest it was parsed to *)
     flag 17 (negb (adjacent_fields (sxb (ok_val (sx_nth d 2))) (sx_Z (ok_val (sx_nth d 3)))
                                    (fields_by_slash path))) ++
     flag clause (negb (sx_eqb (sx_nth obs 4) (L [A 0; L [sx_nth d 0; sx_nth obs 2]])))
   else []).

Definition mon_instance_name (name : bytes) (obs : sx) : list Z :=
  flag 9 (has_panic obs) ++
  (if head_is0 obs then
     flag 8 (negb (inst_wf name) || negb (beqb (sxb (sx_nth obs 1)) name)) ++
     flag 7 (negb (sx_eqb (sx_nth obs 2) (enc_list (spec_components name)))
             || negb (sx_eqb (sx_nth obs 3) (L [A 0; enc_bytes name])))
   else flag 16 (inst_wf name && negb (has_panic obs))).

Definition mon_structured (inp obs : sx) : list Z :=
  let inst := sxb (sx_nth inp 1) in
  let fn := sx_N (sx_nth inp 2) in
  let hash := sxb (sx_nth inp 3) in
  let size := sx_Z (sx_nth inp 4) in
  let comp := sx_N (sx_nth inp 5) in
  let len_ok := match hash_size_of fn with
                | Some hb => N.eqb (N.of_nat (length hash)) (2 * hb)
                | None => true end in
  flag 9 (has_panic obs) ++
  match sx_Z (sx_nth obs 0) with
  | 0 =>
      let d := sx_nth obs 1 in
      let key1 := sx_nth d 0 in
      flag 8 (negb (dobs_wf d)) ++
      flag 1 (negb (beqb (sxb (ok_val (sx_nth d 2))) hash && (sx_Z (ok_val (sx_nth d 3)) =? size)
                    && beqb (sxb (ok_val (sx_nth d 4))) inst
                    && (N.eqb fn c20_enum_unknown || N.eqb (sx_N (ok_val (sx_nth d 1))) fn))) ++
      flag 7 (dobs_wf d && negb (dobs_consistent d)) ++
      flag 2 (valid_comp comp && negb (sx_eqb (sx_nth obs 3) (L [A 0; L [key1; of_N comp]]))) ++
      flag 3 (valid_comp comp && negb (sx_eqb (sx_nth obs 5) (L [A 0; L [key1; of_N comp]]))) ++
      flag 4 (negb (sx_eqb (sx_nth obs 6) (L [A 0; key1]))) ++
      flag 5 (negb (sx_eqb (sx_nth obs 7) (L [A 0; L [key1; A 2]])))
  | 1 => flag 16 (inst_wf inst)
  | 2 => flag 16 (if N.eqb fn c20_enum_unknown
                  then match assoc (N.of_nat (length hash)) c20_bare_by_size with Some _ => true | None => false end
                  else is_supported fn)
  | 3 => flag 16 (len_ok && forallb lowerhex hash && (0 <=? size))
  | _ => []
  end.

Definition mon_compact (obs : sx) : list Z :=
  flag 9 (has_panic obs) ++
  (if head_is0 obs then
     let d := sx_nth obs 1 in
     flag 8 (negb (dobs_wf d)) ++ flag 7 (dobs_wf d && negb (dobs_consistent d))
   else []).

(** first occurrences, in order *)
Fixpoint first_occ (seen l : list bytes) : list bytes :=
  match l with
  | [] => []
  | x :: r => if memb x seen then first_occ seen r else x :: first_occ (x :: seen) r
  end.

Definition mon_sets (inp obs : sx) : list Z :=
  let entries := sx_list (sx_nth inp 1) in
  let sets := map sx_nats (sx_list (sx_nth inp 2)) in
  let us := map sxb (sx_list (sx_nth obs 0)) in
  let k0 := map (fun s => sxb (ok_val s)) (sx_list (sx_nth obs 1)) in
  let built := map (fun s => map sxb (sx_list s)) (sx_list (sx_nth obs 2)) in
  let u := map sxb (sx_list (sx_nth obs 3)) in
  let di := sx_nth obs 4 in
  let lst (s : sx) := map sxb (sx_list s) in
  let a := nth 0 built [] in
  let b := nth 1 built [] in
  let idx := seq 0 (length entries) in
  let ent i := nth i entries (L []) in
  let noinst (e : sx) := L [sx_nth e 1; sx_nth e 2; sx_nth e 3] in
  (* entry of a key, found through the implementation's own keys *)
  let entry_of (x : bytes) : sx :=
    match find (fun i => beqb (nth i us []) x) idx with Some i => ent i | None => L [] end in
  let inst_of x := sxb (sx_nth (entry_of x) 0) in
  let size_of x := sx_Z (sx_nth (entry_of x) 3) in
  let insts := first_occ [] (map inst_of u) in
  flag 9 (has_panic obs) ++
  flag 6 (negb (forallb (fun i => forallb (fun j =>
            Bool.eqb (beqb (nth i us []) (nth j us [])) (sx_eqb (ent i) (ent j))
            && Bool.eqb (beqb (nth i k0 []) (nth j k0 [])) (sx_eqb (noinst (ent i)) (noinst (ent j)))) idx) idx)
          || negb (Nat.eqb (length us) (length entries)) || negb (Nat.eqb (length k0) (length entries))) ++
  flag 10 (negb (Nat.eqb (length built) (length sets))
           || negb (forallb (fun p => strictly_sorted (snd p)
                                      && same_set (snd p) (map (fun i => nth i us []) (fst p)))
                            (combine sets built))) ++
  flag 11 (negb (strictly_sorted u && same_set u (concat built))
           || negb (sx_eqb (sx_nth obs 8) (sx_nth obs 3))) ++
  flag 12 (negb (strictly_sorted (lst (sx_nth di 0)) && strictly_sorted (lst (sx_nth di 1))
                 && strictly_sorted (lst (sx_nth di 2))
                 && same_set (lst (sx_nth di 0)) (filter (fun x => negb (memb x b)) a)
                 && same_set (lst (sx_nth di 1)) (filter (fun x => memb x b) a)
                 && same_set (lst (sx_nth di 2)) (filter (fun x => negb (memb x a)) b))) ++
  flag 13 (negb (sx_eqb (sx_nth obs 5)
                   (L [A 0; enc_sets (map (fun i => filter (fun x => beqb (inst_of x) i) u) insts)]))) ++
  flag 14 (negb (sx_eqb (sx_nth obs 6)
                   (L [A 0; enc_list (filter (fun x => negb (size_of x =? 0)) u)]))) ++
  flag 15 (negb (sx_eqb (sx_nth obs 7)
                   (L (map (fun s => of_option enc_bytes (match s with [] => None | x :: _ => Some x end)) built)))).

Definition mon20 (inp obs : sx) : list Z :=
  match sx_Z (sx_nth inp 0) with
  | 0 => mon_parse 2 (sxb (sx_nth inp 1)) obs
  | 1 => mon_parse 3 (sxb (sx_nth inp 1)) obs
  | 2 => mon_instance_name (sxb (sx_nth inp 1)) obs
  | 3 => mon_structured inp obs
  | 4 => mon_compact obs
  | 6 => mon_sets inp obs
  | _ => []
  end.

Definition judge20 (inp obs : sx) : sx := judge_det run20 mon20 inp obs.
