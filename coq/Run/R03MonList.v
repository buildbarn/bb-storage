(** C03, monitor versus model — the block list seen through the steps of Persist/Syncer.v: which
    events change the locations of the listed blocks, the number of released blocks and the table of
    pending Puts (only PushBack / PopFront / Put / finalizer do), and that the snapshots of
    GetPersistentState are taken at a release count that only grows. *)
From Coq Require Import List NArith ZArith Bool Arith Lia.
From BBS Require Import Persist.PBL Persist.PBLProofs Persist.Syncer Persist.SyncerProofs
  Persist.Shutdown Persist.ShutdownProofs Persist.ShutdownOrder Run.R03 Run.R03MonGhost
  Run.R03MonReplay.
Import ListNotations.
Local Open Scope nat_scope.

Definition locs (p : pbl) : list loc := map b_loc (blocks p).
Definition tr (s : sys) : nat := totalReleased (s_pbl s).

Lemma set_written_locs bs : forall i w, map b_loc (set_written bs i w) = map b_loc bs.
Proof.
  induction bs as [|b bs IH]; intros [|i] w; cbn; try reflexivity.
  - destruct (b_written b <? w)%Z; reflexivity.
  - rewrite IH. reflexivity.
Qed.

Lemma bump_locs bs : map b_loc (bump_last_epoch_count bs) = map b_loc bs.
Proof.
  induction bs as [|b bs IH]; [reflexivity|]. destruct bs as [|b' bs]; [reflexivity|].
  change (bump_last_epoch_count (b :: b' :: bs)) with (b :: bump_last_epoch_count (b' :: bs)).
  cbn [map]. rewrite IH. reflexivity.
Qed.

Lemma nss_frame f p : totalReleased (notify_sync_starting f p) = totalReleased p /\
                      locs (notify_sync_starting f p) = locs p.
Proof. unfold notify_sync_starting, locs. cbn. rewrite map_map. split; reflexivity. Qed.

Lemma nsc_frame p : totalReleased (notify_sync_completed p) = totalReleased p /\
                    locs (notify_sync_completed p) = locs p.
Proof.
  destruct (nsc_shape p) as [Hb [_ [_ [Ht _]]]]. unfold locs. rewrite Hb, map_map. split; [exact Ht|reflexivity].
Qed.

Lemma gps_frame p p' st : get_persistent_state p = Ok (p', st) -> totalReleased p' = totalReleased p /\ locs p' = locs p.
Proof.
  unfold get_persistent_state. destruct (gps_loop _ _ _ _); [|discriminate]. cbn. intros [= <-]. split; reflexivity.
Qed.

Lemma nsw_frame p p' : notify_state_written p = Ok p' -> totalReleased p' = totalReleased p /\ locs p' = locs p.
Proof.
  unfold notify_state_written. destruct (_ <? _); [discriminate|].
  destruct (skipn _ _); [destruct (nc_block _ _)|]; intros [= <-]; split; reflexivity.
Qed.

Lemma put_finalize_frame tok blk size seed p p' fr : put_finalize tok blk size seed p = Ok (p', fr) ->
  totalReleased p' = totalReleased p /\ locs p' = locs p.
Proof.
  intros H. destruct fr as [off| | |].
  - destruct (put_finalize_ok_shape _ _ _ _ _ _ _ H) as [abs [_ [_ [_ [_ [_ [Ht [_ [_ [_ [_ Hsh]]]]]]]]]]].
    split; [exact Ht|]. unfold locs. cbv zeta in Hsh.
    destruct Hsh as [[Hb _]|[Hb _]]; rewrite Hb, ?bump_locs, set_written_locs; reflexivity.
  - rewrite (put_finalize_not_ok _ _ _ _ _ _ _ H) by discriminate. auto.
  - rewrite (put_finalize_not_ok _ _ _ _ _ _ _ H) by discriminate. auto.
  - rewrite (put_finalize_not_ok _ _ _ _ _ _ _ H) by discriminate. auto.
Qed.

Lemma wstep_frame cfg me w a s s1 w' : wstep cfg me w a s = Some (Ok (s1, w')) ->
  tr s1 = tr s /\ locs (s_pbl s1) = locs (s_pbl s) /\ s_uploads s1 = s_uploads s.
Proof.
  unfold wstep, tr. destruct w.
  - destruct (s_store s); [discriminate|]. intros [= <-]; auto.
  - destruct (get_persistent_state (s_pbl s)) as [[p' st]|] eqn:E; [|discriminate].
    intros [= <-]. cbn. destruct (gps_frame _ _ _ E). auto.
  - destruct (a_ok a); intros [= <-]; auto.
  - destruct (notify_state_written (s_pbl s)) as [p'|] eqn:E; [|discriminate].
    intros [= <-]. cbn. destruct (nsw_frame _ _ E). auto.
  - destruct (_ <=? _)%N; [|discriminate]. intros [= <-]; auto.
Qed.

Lemma quiet_frame cfg s ev s' : quiet ev -> step cfg s ev = Some (Ok s') ->
  tr s' = tr s /\ locs (s_pbl s') = locs (s_pbl s) /\ s_uploads s' = s_uploads s.
Proof.
  destruct ev as [alloc| |index size|k blk seed|d| |t a]; cbn [quiet]; try contradiction; intros _; cbn [step].
  - intros [= <-]; auto.
  - intros [= <-]; auto.
  - destruct t.
    + unfold rstep. destruct (s_r s) as [|ch|w].
      * intros [= <-]; auto.
      * destruct (is_closed _ _); [|discriminate]. intros [= <-]; auto.
      * destruct (wstep cfg TR w a s) as [[[s1 w']|]|] eqn:Ew; try discriminate.
        pose proof (wstep_frame _ _ _ _ _ _ _ Ew) as Hf. destruct w'; intros [= <-]; exact Hf.
    + unfold pstep. destruct (s_p s) as [|ch|ch|dl|keep|keep final|keep final|keep final dl|keep w|].
      * intros [= <-]; auto.
      * destruct (is_closed _ _); intros [= <-]; auto.
      * destruct (s_cancel s && _); [|destruct (is_closed _ _); [|discriminate]]; intros [= <-]; auto.
      * destruct (s_cancel s && _); [|destruct (_ && _)%bool; [|discriminate]]; intros [= <-]; auto.
      * intros [= <-]. unfold tr. cbn. destruct (nss_frame false (s_pbl s)). auto.
      * destruct (a_ok a); intros [= <-]; auto.
      * destruct (nsc_frame (s_pbl s)) as [C1 C2].
        destruct (negb keep && negb final); intros [= <-]; unfold tr;
          cbn [s_pbl with_p with_pbl s_uploads].
        -- destruct (nss_frame true (notify_sync_completed (s_pbl s))) as [D1 D2]. rewrite D1, D2, C1, C2. auto.
        -- rewrite C1, C2. auto.
      * destruct (_ <=? _)%N; [|discriminate]. intros [= <-]; auto.
      * destruct (wstep cfg TP w a s) as [[[s1 w']|]|] eqn:Ew; try discriminate.
        pose proof (wstep_frame _ _ _ _ _ _ _ Ew) as Hf. destruct w'; intros [= <-]; exact Hf.
      * discriminate.
Qed.

Lemma push_shape cfg s alloc s' : step cfg s (EPushBack alloc) = Some (Ok s') ->
  tr s' = tr s /\ s_uploads s' = s_uploads s /\
  locs (s_pbl s') = locs (s_pbl s) ++
    (if closedForWriting (s_pbl s) then [] else match alloc with Some l => [l] | None => [] end).
Proof.
  cbn [step]. intros [= <-]. unfold tr, locs, push_back.
  destruct (closedForWriting _); [cbn; rewrite app_nil_r; auto|].
  destruct alloc; cbn; rewrite ?map_app, ?app_nil_r; auto.
Qed.

Lemma pop_shape cfg s s' : step cfg s EPopFront = Some (Ok s') ->
  tr s' = S (tr s) /\ s_uploads s' = s_uploads s /\ exists b0, locs (s_pbl s) = b0 :: locs (s_pbl s').
Proof.
  cbn [step]. destruct (blocks (s_pbl s)) as [|b rest] eqn:Eb; [discriminate|].
  destruct (pop_front (s_pbl s)) as [p'|] eqn:Ep; [|discriminate]. intros [= <-].
  destruct (pop_front_shape _ _ _ _ Eb Ep) as [Hb [_ [_ [Ht _]]]]. unfold tr, locs. cbn [s_pbl with_pbl s_uploads].
  rewrite Ht, Hb, Eb. splits; auto. exists (b_loc b). reflexivity.
Qed.

Lemma putstart_shape cfg s index size s' : step cfg s (EPutStart index size) = Some (Ok s') ->
  s_pbl s' = s_pbl s /\
  exists tok, s_uploads s' = s_uploads s ++ [Some (tok, size)] /\ forall abs, tok = PutAt abs -> abs = tr s + index.
Proof.
  cbn [step]. destruct (_ || _)%bool; [|discriminate].
  destruct (put_start _ _) as [tok|] eqn:Ep; [|discriminate]. intros [= <-].
  split; [reflexivity|]. exists tok. split; [reflexivity|].
  intros abs ->. unfold put_start in Ep. destruct (closedForWriting _); [discriminate|].
  destruct (_ <? _); [|discriminate]. injection Ep as <-. reflexivity.
Qed.

Lemma finalize_shape cfg s k blk seed s' : step cfg s (EFinalize k blk seed) = Some (Ok s') ->
  tr s' = tr s /\ locs (s_pbl s') = locs (s_pbl s) /\ s_uploads s' = clear_nth (s_uploads s) k.
Proof.
  cbn [step]. destruct (nth_error (s_uploads s) k) as [[[tok sz]|]|]; try discriminate.
  destruct (put_finalize tok blk sz seed (s_pbl s)) as [[p' fr]|] eqn:Ef; [|discriminate].
  intros [= <-]. destruct (put_finalize_frame _ _ _ _ _ _ _ Ef) as [Ft Fl]. unfold tr. auto.
Qed.

Lemma step_locs_shape cfg s e s' : step cfg s e = Some (Ok s') ->
  (tr s' = tr s /\ exists l1, locs (s_pbl s') = locs (s_pbl s) ++ l1) \/
  (tr s' = S (tr s) /\ exists b0, locs (s_pbl s) = b0 :: locs (s_pbl s')).
Proof.
  intros Hs.
  assert (Hq : quiet e -> tr s' = tr s /\ exists l1, locs (s_pbl s') = locs (s_pbl s) ++ l1).
  { intros Q. destruct (quiet_frame cfg s e s' Q Hs) as [E1 [E2 _]]. split; [exact E1|].
    exists []. rewrite app_nil_r. exact E2. }
  destruct e as [alloc| |index size|k blk seed|d| |t a]; try (left; apply Hq; exact I).
  - destruct (push_shape _ _ _ _ Hs) as [Ht [_ Hl]]. left. eauto.
  - destruct (pop_shape _ _ _ Hs) as [Ht [_ Hl]]. right. auto.
  - destruct (putstart_shape _ _ _ _ _ Hs) as [Hp _]. left. unfold tr. rewrite Hp.
    split; [reflexivity|]. exists []. rewrite app_nil_r. reflexivity.
  - destruct (finalize_shape _ _ _ _ _ _ Hs) as [Ht [Hl _]]. left. split; [exact Ht|].
    exists []. rewrite app_nil_r. exact Hl.
Qed.

Lemma step_tr_mono cfg s e s' : step cfg s e = Some (Ok s') -> tr s <= tr s'.
Proof. intros Hs. destruct (step_locs_shape _ _ _ _ Hs) as [[-> _]|[-> _]]; lia. Qed.

(** snapshots are taken at the release count of their moment *)
Definition Bw (s : sys) (gx : gsys) : Prop :=
  (forall w, In w (gs_writes gx) -> gw_base_abs w <= tr s) /\
  (forall t w, get_pend gx t = Some w -> gw_base_abs w <= tr s).

Lemma gstep_base cfg s e s' x w' : step cfg s e = Some (Ok s') ->
  (In w' (gs_writes (gstep s e s' x)) \/ exists t', get_pend (gstep s e s' x) t' = Some w') ->
  (In w' (gs_writes x) \/ exists t', get_pend x t' = Some w') \/
  (gw_base_abs w' = tr s /\ exists p', get_persistent_state (s_pbl s) = Ok (p', gw_state w')).
Proof.
  intros Hs. destruct (gstep_gsh cfg s e s' x Hs) as [_ [_ [S3 [S4 _]]]]. intros [H|[t' H]].
  - left. exact (S4 _ H).
  - destruct (S3 _ _ H) as [Ho|[_ Hn]]; [left; right; eauto|right; exact Hn].
Qed.

Lemma Bw_step cfg s e s' gx : Bw s gx -> step cfg s e = Some (Ok s') -> Bw s' (gstep s e s' gx).
Proof.
  intros [B1 B2] Hs. pose proof (step_tr_mono _ _ _ _ Hs) as Hm.
  assert (Hb : forall w, (In w (gs_writes (gstep s e s' gx)) \/ exists t, get_pend (gstep s e s' gx) t = Some w) ->
                         gw_base_abs w <= tr s').
  { intros w Hw. destruct (gstep_base cfg s e s' gx w Hs Hw) as [[H|[t' H]]|[H _]];
      [specialize (B1 _ H)|specialize (B2 _ _ H)|]; lia. }
  split; [intros w Hin; apply Hb; left; exact Hin|intros t w Hp; apply Hb; right; exists t; exact Hp].
Qed.

Lemma Bw_gpath cfg P s gx s' gx' : gpath cfg P s gx s' gx' -> Bw s gx -> Bw s' gx'.
Proof. induction 1 as [|s x e s1 s' x' _ Hs _ IH]; [auto|]. intros B. apply IH. eapply Bw_step; eauto. Qed.

Lemma Bw_nowrites s gx : gs_writes gx = [] -> gs_pend_r gx = None -> gs_pend_p gx = None -> Bw s gx.
Proof.
  intros H1 H2 H3. split.
  - intros w Hin. rewrite H1 in Hin. destruct Hin.
  - intros [|] w Hp; cbn in Hp; congruence.
Qed.
