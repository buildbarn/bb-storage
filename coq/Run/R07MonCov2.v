(** C07, "the monitor is silent on the model" — part 6: coverage along one
    [quiesce] (clauses 4 and 6).

    [ctraj]: while the loops run to quiescence the ghost records of the
    acknowledged uploads stay valid; their levels change only from 0 to 1 (a
    DataSyncer call is entered through NotifySyncStarting); at most one
    GetPersistentState happens, and the state it takes passes [check_write]
    for every acknowledged upload ([okw]); a state write that was already in
    flight keeps passing it. *)
From Coq Require Import List NArith ZArith Bool Arith Lia.
From BBS Require Import Common.Sx Persist.PBL Persist.PBLProofs Persist.Syncer Persist.SyncerProofs
  Persist.LiveActs Persist.LiveCover Persist.LiveRelease Run.R07 Run.R07MonBase Run.R07MonOps Run.R07MonC123
  Run.R07MonCov1.
Import ListNotations.
Local Open Scope nat_scope.

Definition offs (p : pbl) : list Z := map (fun b => fst (b_loc b)) (blocks p).

Lemma int_fields a p p' : apply_act a p = Ok p' ->
  match a with
  | APush _ | APop | AFin _ _ _ _ => True
  | _ => offs p' = offs p /\ epochSeeds p' = epochSeeds p
  end.
Proof.
  destruct a as [|al| |tok blk size seed| |b|t|t]; cbn [apply_act]; auto.
  - intros H; inversion H; auto.
  - intros H; inversion H; subst. unfold offs. cbn. rewrite map_map. auto.
  - intros H; inversion H; subst. destruct (nsc_fields p) as [Fb [Fs _]].
    destruct b; unfold offs; cbn [blocks epochSeeds notify_sync_starting]; rewrite Fb, Fs, ?map_map; auto.
  - destruct (get_persistent_state p) as [[p1 st]|] eqn:Eg; [|discriminate]. cbn. intros H; inversion H; subst.
    destruct (gps_fields _ _ _ Eg) as [Hc _]. unfold core in Hc. inversion Hc. unfold offs. split; congruence.
  - intros H. destruct (nsw_fields _ _ H) as [Hc _]. unfold core in Hc. inversion Hc. unfold offs. split; congruence.
Qed.

Definition winv (st : pstate) (E : nat) (p : pbl) : Prop :=
  u32 (oldestEpochID p) = u32 (fst st + N.of_nat E) /\ st_nseeds st <= synchronizedEpochs p + E.

Lemma winv_act st E a p p' : pbl_inv p -> winv st E p -> apply_act a p = Ok p' -> winv st (E + popc a p) p'.
Proof.
  intros I [W1 W2] Ha.
  assert (Hsame : sfields p' = sfields p -> popc a p = 0 -> winv st (E + popc a p) p').
  { intros Hs Hp. unfold sfields in Hs. inversion Hs as [[H1 H2 H3 H4]]. rewrite Hp, Nat.add_0_r.
    unfold winv. rewrite H2, H3. auto. }
  pose proof (act_sfields _ _ _ Ha) as Hsf.
  destruct a as [|al| |tok blk size seed| |b|t|t]; try (apply Hsame; [exact Hsf|reflexivity]); cbn [apply_act] in Ha.
  - destruct (blocks p) as [|fb rest] eqn:Eb; [unfold pop_front in Ha; rewrite Eb in Ha; discriminate|].
    destruct (pop_fields _ _ _ _ Eb Ha) as [_ [_ [_ [_ [_ [Fsd [_ [_ [_ [_ Fo]]]]]]]]]].
    cbn [popc]. rewrite Eb. unfold winv. rewrite Fsd, Fo. split; [|lia].
    rewrite u32_idem, <- u32_add_l, W1, u32_add_l. f_equal. lia.
  - inversion Ha; subst. cbn [popc]. rewrite Nat.add_0_r. unfold winv. cbn. auto.
  - inversion Ha; subst. cbn [popc]. rewrite Nat.add_0_r.
    destruct (nsc_fields p) as [_ [_ [_ [_ [_ [Fsd [_ [_ [_ [_ Fo]]]]]]]]]]. pose proof (i_sync1 _ I).
    destruct b; unfold winv; cbn [synchronizedEpochs oldestEpochID notify_sync_starting]; rewrite Fsd, Fo; split; auto; lia.
Qed.

Definition should (j : option nat) (k : ack) : bool :=
  match j with Some j0 => (k_step k <? j0)%nat | None => false end.

Definition Wp (acks : list ack) (Etot sb : nat) (s : sys) (cur : option pendw) : Prop :=
  forall t st, written_state s t = Some st ->
    exists j popped E, cur = Some (mkPendw (enc_st st) j popped)
      /\ Forall (okw (mkPendw (enc_st st) j popped)) acks
      /\ winv st E (s_pbl s) /\ E <= Etot /\ (forall j0, j = Some j0 -> j0 <= sb).

Definition lift (e : bool) (g : gack) : gack :=
  if e then mkG (g_o g) (Nat.max (g_lv g) 1) (g_d g) else g.
Definition entered (x1 xc : xst) : bool := negb (is_syncing (x_sys x1)) && is_syncing (x_sys xc).

Lemma F2_next a p p' acks gs : pbl_inv p -> inv_last p -> apply_act a p = Ok p' ->
  Forall2 (ack_ok p) acks gs -> Forall2 (ack_ok p') acks (map (g_next a p) gs).
Proof.
  intros I L Ha F. induction F as [|k g ks gs' Hk F IH]; cbn [map]; constructor; auto.
  eapply ack_ok_act; eauto.
Qed.

Lemma g_next_id a p g : (forall lv, lv_next lv a = lv) -> popc a p = 0 -> g_next a p g = g.
Proof. intros H1 H2. destruct g. unfold g_next. cbn. rewrite H1, H2, Nat.add_0_r. reflexivity. Qed.

Lemma thr_uploads cfg s t a s' : inv1 s -> step cfg s (EStep t a) = Some (Ok s') -> s_uploads s' = s_uploads s.
Proof.
  intros II. destruct t; cbn [step].
  - unfold rstep. destruct (s_r s) as [|ch|w].
    + intros H; inversion H; reflexivity.
    + destruct (is_closed _ _); [|discriminate]. intros H; inversion H; reflexivity.
    + destruct (wstep cfg TR w a s) as [o|] eqn:Ew; [|discriminate].
      destruct (wstep_inv1 _ _ _ _ _ _ II Ew) as [s1 [w' [-> [_ [Hu _]]]]].
      destruct w'; intros H; inversion H; subst; exact Hu.
  - unfold pstep. destruct (s_p s) as [|ch|ch|dl|keep|keep final|keep final|keep final dl|keep w|].
    + intros H; inversion H; reflexivity.
    + destruct (is_closed _ _); intros H; inversion H; reflexivity.
    + destruct (s_cancel s && _); [|destruct (is_closed _ _); [|discriminate]]; intros H; inversion H; reflexivity.
    + destruct (s_cancel s && _); [|destruct (_ && _)%bool; [|discriminate]]; intros H; inversion H; reflexivity.
    + intros H; inversion H; reflexivity.
    + destruct (a_ok a); intros H; inversion H; reflexivity.
    + destruct (negb keep && negb final); intros H; inversion H; reflexivity.
    + destruct (_ <=? _)%N; [|discriminate]. intros H; inversion H; reflexivity.
    + destruct (wstep cfg TP w a s) as [o|] eqn:Ew; [|discriminate].
      destruct (wstep_inv1 _ _ _ _ _ _ II Ew) as [s1 [w' [-> [_ [Hu _]]]]].
      destruct w'; intros H; inversion H; subst; exact Hu.
    + discriminate.
Qed.

(** a thread that is inside WritePersistentState holds storeLock *)
Lemma writing_holds s t st : written_state s t = Some st ->
  match t with TR => r_holds s = true | TP => p_holds s = true end.
Proof.
  destruct t; cbn [written_state]; unfold r_holds, p_holds.
  - destruct (s_r s) as [| |[]]; try discriminate. reflexivity.
  - destruct (s_p s) as [| | | | | | | |? []|]; try discriminate. reflexivity.
Qed.

Lemma getstate_holds s t : at_getstate t s = true ->
  match t with TR => r_holds s = true | TP => p_holds s = true end.
Proof.
  destruct t; cbn [at_getstate]; unfold r_holds, p_holds.
  - destruct (s_r s) as [| |[]]; try discriminate. reflexivity.
  - destruct (s_p s) as [| | | | | | | |? []|]; try discriminate. reflexivity.
Qed.

Lemma holds_excl s t t' : inv3 s ->
  match t with TR => r_holds s = true | TP => p_holds s = true end ->
  match t' with TR => r_holds s = true | TP => p_holds s = true end -> t = t'.
Proof.
  intros [_ I3] H1 H2. destruct t, t'; auto; rewrite H1, H2 in I3; discriminate.
Qed.

Lemma written_frame cfg s t a s' t0 : inv1 s -> step cfg s (EStep t a) = Some (Ok s') -> t0 <> t ->
  written_state s' t0 = written_state s t0.
Proof.
  intros II Hs Hne. destruct t; cbn [step] in Hs; destruct t0; try congruence; cbn [written_state].
  - rewrite (rstep_frame _ _ _ _ II Hs). reflexivity.
  - rewrite (pstep_frame _ _ _ _ II Hs). reflexivity.
Qed.

Lemma act_getstate s t a : act_of s (EStep t a) = AGetState t <-> at_getstate t s = true.
Proof.
  destruct t; cbn [act_of at_getstate].
  - destruct (s_r s) as [| |[]]; cbn; split; intros H; try discriminate; reflexivity.
  - destruct (s_p s) as [| | | | | | | |? []|]; cbn; split; intros H; try discriminate; reflexivity.
Qed.

(** a thread enters WWriting only through GetPersistentState *)
Lemma written_new cfg s t a s' st : step cfg s (EStep t a) = Some (Ok s') -> inv1 s ->
  written_state s' t = Some st -> written_state s t = Some st \/ at_getstate t s = true.
Proof.
  intros Hs II Hw. destruct t; cbn [step] in Hs; cbn [written_state at_getstate] in *.
  - pose proof (rstep_shape _ _ _ _ Hs) as Sh. revert Sh Hw.
    destruct (s_r s) as [|c|w]; intros Sh Hw.
    + destruct Sh as [c Sh]. rewrite Sh in Hw. discriminate.
    + rewrite Sh in Hw. discriminate.
    + destruct Sh as [[w' [Sh Sw]]|[_ Sh]]; rewrite Sh in Hw; [|discriminate].
      destruct w.
      * subst w'. discriminate Hw.
      * right. reflexivity.
      * destruct Sw as [[_ ->]|[_ ->]]; discriminate Hw.
      * destruct Sw.
      * subst w'. discriminate Hw.
  - destruct (pstep_shape _ _ _ _ II Hs) as [_ [_ [Sh _]]]. revert Sh Hw.
    destruct (s_p s) as [|ch|ch|dl|keep|keep final|keep final|keep final dl|keep w|]; intros Sh Hw.
    + destruct Sh as [c Sh]. rewrite Sh in Hw. discriminate.
    + destruct Sh as [Sh|Sh]; rewrite Sh in Hw; discriminate.
    + destruct Sh as [[_ Sh]|Sh]; rewrite Sh in Hw; discriminate.
    + destruct Sh as [[_ [Sh _]]|[Sh _]]; rewrite Sh in Hw; discriminate.
    + rewrite Sh in Hw. discriminate.
    + destruct Sh as [[_ Sh]|[_ Sh]]; rewrite Sh in Hw; discriminate.
    + destruct Sh as [[_ [_ Sh]]|[_ Sh]]; rewrite Sh in Hw; discriminate.
    + rewrite Sh in Hw. discriminate.
    + destruct Sh as [[w' [Sh Sw]]|[_ Sh]]; rewrite Sh in Hw; [|destruct keep; discriminate].
      destruct w.
      * subst w'. discriminate Hw.
      * right. reflexivity.
      * destruct Sw as [[_ ->]|[_ ->]]; discriminate Hw.
      * destruct Sw.
      * subst w'. discriminate Hw.
    + destruct Sh.
Qed.

Lemma tid_dec (t t' : tid) : t = t' \/ t <> t'.
Proof. destruct t, t'; auto; right; discriminate. Qed.

Lemma written_sub cfg s t a s' : inv1 s -> step cfg s (EStep t a) = Some (Ok s') -> at_getstate t s = false ->
  forall t' st, written_state s' t' = Some st -> written_state s t' = Some st.
Proof.
  intros II Hs Hg t' st Hw. destruct (tid_dec t' t) as [->|Hne].
  - destruct (written_new _ _ _ _ _ _ Hs II Hw) as [H|H]; [exact H|congruence].
  - rewrite <- (written_frame _ _ _ _ _ _ II Hs Hne). exact Hw.
Qed.

Lemma F2_lv2_gen j acks gs e : Forall2 (fun k g => g_lv g = 2 <-> should j k = true) acks gs ->
  Forall2 (fun k g => g_lv g = 2 <-> should j k = true) acks (map (lift e) gs).
Proof.
  intros F. induction F as [|k g ks gs' Hk F IH]; cbn [map]; constructor; auto.
  destruct e; cbn [lift g_lv]; [|exact Hk]. destruct Hk as [H1 H2]. split; intros H.
  - apply H1. lia.
  - specialize (H2 H). lia.
Qed.

Lemma F2_zm_lift popped tr acks gs e :
  Forall2 (fun k g => o_block (g_o g) < tr -> zmem (k_loc k) popped = true) acks gs ->
  Forall2 (fun k g => o_block (g_o g) < tr -> zmem (k_loc k) popped = true) acks (map (lift e) gs).
Proof.
  intros F. induction F as [|k g ks gs' Hk F IH]; cbn [map]; constructor; auto.
  destruct e; cbn [lift g_o]; exact Hk.
Qed.

Lemma okw_all p p' st j popped acks gl :
  pbl_inv p -> inv_last p -> get_persistent_state p = Ok (p', st) -> length (epochSeeds p) < N.to_nat M32 ->
  Forall2 (fun k g => o_block (g_o g) < totalReleased p -> zmem (k_loc k) popped = true) acks gl ->
  Forall2 (ack_ok p) acks gl ->
  Forall2 (fun k g => g_lv g = 2 <-> should j k = true) acks gl ->
  Forall (okw (mkPendw (enc_st st) j popped)) acks.
Proof.
  intros I L Hg Hb Hz Hok Hl2. induction Hok as [|k g ks gs' Hk F IH]; [constructor|].
  inversion Hz; subst. inversion Hl2; subst. constructor; [|apply IH; auto].
  eapply okw_at_issue; eauto.
Qed.

Section Traj.
Variable cfg : config.
Variable alloc : loc -> Z -> bool.
Variable oldest : N.
Variable init : list bstate.
Variable t0 : N.
Notation good := (good cfg alloc oldest init t0).

(* the monitor's values after this operation, fixed while the loops run *)
Variable acks' : list ack.
Variable gs1 : list gack.
Variable cur1 : option pendw.
Variable j' : option nat.
Variable popped' : list Z.
Variable Etot sb : nat.
Variable x1 : xst.

Hypothesis Hbound : length (epochSeeds (s_pbl (x_sys x1))) < N.to_nat M32.
Hypothesis Hzm : Forall2 (fun k g => o_block (g_o g) < totalReleased (s_pbl (x_sys x1)) -> zmem (k_loc k) popped' = true)
                         acks' gs1.
Hypothesis Hlv : Forall2 (fun k g => g_lv g = 2 <-> should j' k = true) acks' gs1.
Hypothesis Hjsb : forall j0, j' = Some j0 -> j0 <= sb.

Record ctraj (xc : xst) : Prop := mkCT {
  ct_gs : Forall2 (ack_ok (s_pbl (x_sys xc))) acks' (map (lift (entered x1 xc)) gs1);
  ct_not_ret : forall k f, s_p (x_sys xc) <> PSyncRet k f;
  ct_sync1 : is_syncing (x_sys x1) = true -> s_p (x_sys xc) = s_p (x_sys x1);
  ct_w : exists cur_c, Wp acks' Etot sb (x_sys xc) cur_c /\
           ((x_nwr xc = x_nwr x1 /\ cur_c = cur1) \/
            (x_nwr xc = S (x_nwr x1) /\ exists t st, written_state (x_sys xc) t = Some st
                                        /\ cur_c = Some (mkPendw (enc_st st) j' popped')));
  ct_offs : offs (s_pbl (x_sys xc)) = offs (s_pbl (x_sys x1));
  ct_seeds : epochSeeds (s_pbl (x_sys xc)) = epochSeeds (s_pbl (x_sys x1));
  ct_tr : totalReleased (s_pbl (x_sys xc)) = totalReleased (s_pbl (x_sys x1));
  ct_upl : s_uploads (x_sys xc) = s_uploads (x_sys x1);
  ct_cnt : same_counters x1 xc
}.

Lemma ctraj_step xc t x' : ctraj xc -> good (x_sys xc) -> t_internal cfg (x_sys xc) t = true ->
  tstep cfg t internal_ans xc = Some (Ok x') -> ctraj x'.
Proof.
  intros [C1 C2 C3 [cur_c [C4 C4']] C5 C6 C7 C8 C9] G Hi Ht.
  destruct (tstep_ok _ _ _ _ _ Ht) as [Hs [Hcnt [Hwr Hsy]]].
  pose proof (good_inv1 _ _ _ _ _ _ G) as II.
  destruct (reachable_linv _ _ _ _ _ _ (proj1 G)) as [_ LL].
  destruct (reachable_inv_all _ _ _ _ _ _ (proj1 G)) as [_ [_ [I3 _]]].
  pose proof (step_act _ _ _ _ Hs) as Ha.
  set (s := x_sys xc) in *. set (a := act_of s (EStep t internal_ans)) in *.
  pose proof (thr_uploads _ _ _ _ _ II Hs) as Hup.
  pose proof (internal_act_tr _ _ _ _ _ Hs) as Htr.
  (* classification of the step *)
  assert (Hcls : (a = ANone \/ a = AWritten t \/ a = AGetState t) \/
                 (a = ASyncStart /\ t = TP /\ exists k, s_p s = PNotify k)).
  { unfold a, act_of. destruct t.
    - destruct (s_r s) as [| |[]]; cbn; auto.
    - destruct (s_p s) as [| | | |k|k f|k f|k f d|k w|] eqn:Ep; cbn; auto.
      + right. eauto.
      + exfalso. first [eapply C2; exact Ep|eapply C2; reflexivity].
      + destruct w; cbn; auto. }
  pose proof (int_fields _ _ _ Ha) as Hf.
  assert (Hf' : offs (s_pbl (x_sys x')) = offs (s_pbl s) /\ epochSeeds (s_pbl (x_sys x')) = epochSeeds (s_pbl s)).
  { destruct Hcls as [[E|[E|E]]|[E _]]; rewrite E in Hf; exact Hf. }
  destruct Hf' as [Hf1 Hf2].
  assert (Hpop0 : popc a (s_pbl s) = 0).
  { destruct Hcls as [[E|[E|E]]|[E _]]; rewrite E; reflexivity. }
  (* is the put loop inside a DataSyncer call afterwards? *)
  assert (Hsyn : is_syncing (x_sys x') = match a with ASyncStart => true | _ => is_syncing s end
                 /\ (a = ASyncStart -> is_syncing s = false /\ is_syncing (x_sys x1) = false)
                 /\ (is_syncing (x_sys x1) = true -> s_p (x_sys x') = s_p (x_sys x1))).
  { destruct t; cbn [step t_internal] in *.
    - pose proof (rstep_frame _ _ _ _ II Hs) as Ep.
      assert (a <> ASyncStart) as Hn.
      { destruct Hcls as [[E|[E|E]]|[_ [E _]]]; [rewrite E; discriminate|rewrite E; discriminate|rewrite E; discriminate|discriminate E]. }
      unfold is_syncing. rewrite Ep. split; [destruct a; try reflexivity; congruence|]. split; [congruence|].
      intros H. apply C3. exact H.
    - destruct (pstep_internal _ _ _ II Hi Hs) as [P _].
      assert (Hns : is_syncing s = false) by (unfold is_syncing; destruct P; reflexivity).
      assert (Hn1 : is_syncing (x_sys x1) = false).
      { destruct (is_syncing (x_sys x1)) eqn:E1; [|reflexivity]. specialize (C3 eq_refl).
        unfold is_syncing in Hns, E1. fold s in C3. rewrite C3 in Hns. congruence. }
      split; [|split; [auto|intros H; congruence]].
      destruct Hcls as [Hc|[E [_ [k Ep]]]].
      + assert (is_syncing (x_sys x') = false) as ->.
        { unfold is_syncing. unfold a, act_of in Hc. revert Hc. destruct P; try reflexivity.
          - cbn. intros [Hc|[Hc|Hc]]; discriminate Hc.
          - intros _. exfalso. eapply C2; reflexivity. }
        rewrite Hns. destruct Hc as [E|[E|E]]; rewrite E; reflexivity.
      + rewrite E. rewrite Ep in P. unfold is_syncing. inversion P. reflexivity. }
  destruct Hsyn as [Hsyn [Hsyn2 Hsyn3]].
  (* the ghost records *)
  assert (Hgs : Forall2 (ack_ok (s_pbl (x_sys x'))) acks' (map (lift (entered x1 x')) gs1)).
  { pose proof (F2_next _ _ _ _ _ (proj1 II) LL Ha C1) as F.
    assert (map (g_next a (s_pbl s)) (map (lift (entered x1 xc)) gs1) = map (lift (entered x1 x')) gs1) as <-; [|exact F].
    rewrite map_map. apply map_ext. intros g. unfold entered. rewrite Hsyn. fold s.
    destruct Hcls as [Hc|[E _]].
    - assert (match a with ASyncStart => true | _ => is_syncing s end = is_syncing s) as ->.
      { destruct Hc as [E|[E|E]]; rewrite E; reflexivity. }
      apply g_next_id; [|exact Hpop0]. intros lv. destruct Hc as [E|[E|E]]; rewrite E; reflexivity.
    - destruct (Hsyn2 E) as [H1 H2]. rewrite E, H1, H2. cbn [negb andb lift].
      unfold g_next. cbn [g_o g_lv g_d lv_next popc]. rewrite Nat.add_0_r. reflexivity. }
  constructor; auto.
  - (* never at PSyncRet *)
    intros k f E. destruct t; cbn [step] in Hs.
    + rewrite (rstep_frame _ _ _ _ II Hs) in E. eapply C2. exact E.
    + destruct (pstep_internal _ _ _ II Hi Hs) as [P _]. revert E. destruct P; discriminate.
  - (* the state write in flight *)
    destruct (at_getstate t s) eqn:Eg.
    + (* GetPersistentState *)
      pose proof (proj2 (act_getstate s t internal_ans) Eg) as Ea. fold a in Ea.
      destruct (getstate_step _ _ _ _ _ Hs Ea) as [p' [st [Hgps [Hw [Hp' _]]]]].
      assert (Hnw : x_nwr xc = x_nwr x1).
      { destruct C4' as [[E _]|[_ [t1 [st1 [Hw1 _]]]]]; [exact E|exfalso].
        pose proof (holds_excl _ _ _ I3 (writing_holds _ _ _ Hw1) (getstate_holds _ _ Eg)) as Et. subst t1.
        destruct t; cbn [written_state at_getstate] in Hw1, Eg; fold s in Hw1.
        - destruct (s_r s) as [| |[]]; discriminate.
        - destruct (s_p s) as [| | | | | | | |? []|]; discriminate. }
      exists (Some (mkPendw (enc_st st) j' popped')). split.
      * intros t2 st2 Hw2.
        assert (t2 = t) as ->.
        { destruct (tid_dec t2 t) as [E|Hne]; [exact E|]. rewrite (written_frame _ _ _ _ _ _ II Hs Hne) in Hw2.
          exact (holds_excl _ _ _ I3 (writing_holds _ _ _ Hw2) (getstate_holds _ _ Eg)). }
        rewrite Hw in Hw2. inversion Hw2; subst st2.
        exists j', popped', 0. split; [reflexivity|]. split; [|split; [|split; [lia|exact Hjsb]]].
        -- eapply okw_all; [exact (proj1 II)|exact LL|exact Hgps|fold s in C6; rewrite C6; exact Hbound| |exact C1|apply F2_lv2_gen; exact Hlv].
           fold s in C7. rewrite C7. apply F2_zm_lift. exact Hzm.
        -- unfold winv. rewrite Hp'. destruct (gps_fields _ _ _ Hgps) as [Hc [_ [_ [_ [_ [Ho [Hfst _]]]]]]].
           unfold core in Hc. injection Hc as H1 H2 H3 H4 H5 H6. rewrite Ho, H6, Hfst.
           split; [f_equal; lia|]. rewrite (gps_nseeds _ _ _ (proj1 II) Hgps). lia.
      * right. split; [rewrite Hwr; fold s; rewrite ?Eg; cbv iota; congruence|]. exists t, st. auto.
    + (* no GetPersistentState in this step *)
      exists cur_c. split.
      * intros t2 st2 Hw2.
        destruct (C4 _ _ (written_sub _ _ _ _ _ II Hs Eg _ _ Hw2)) as [j [po [E [H1 [H2 [H3 [H4 H5]]]]]]].
        exists j, po, E. splits; auto.
        pose proof (winv_act _ _ _ _ _ (proj1 II) H3 Ha) as W. rewrite Hpop0, Nat.add_0_r in W. exact W.
      * rewrite Hwr. fold s. rewrite ?Eg. cbv iota. destruct C4' as [[E1 E2]|[E1 [t1 [st1 [Hw1 E2]]]]]; [left; auto|right].
        split; [exact E1|]. exists t1, st1. split; [|exact E2].
        destruct (tid_dec t1 t) as [->|Hne].
        -- exfalso. (* the writer cannot take an internal step *)
           destruct t; cbn [written_state t_internal] in Hw1, Hi; fold s in Hw1.
           ++ unfold r_internal, r_in_io in Hi. destruct (s_r s) as [| |[]]; try discriminate.
           ++ unfold p_internal, p_in_io in Hi. destruct (s_p s) as [| | | | | | | |? []|]; try discriminate.
        -- rewrite (written_frame _ _ _ _ _ _ II Hs Hne). exact Hw1.
  - congruence.
  - congruence.
  - congruence.
  - congruence.
  - destruct C9 as [E1 [E2 E3]]. destruct Hcnt as [F1 [F2 F3]]. unfold same_counters. splits; congruence.
Qed.

Lemma ctraj_refl : Forall2 (ack_ok (s_pbl (x_sys x1))) acks' gs1 -> (forall k f, s_p (x_sys x1) <> PSyncRet k f) ->
  Wp acks' Etot sb (x_sys x1) cur1 -> ctraj x1.
Proof.
  intros F Hn W. constructor; auto.
  - assert (entered x1 x1 = false) as ->.
    { unfold entered. destruct (is_syncing (x_sys x1)); reflexivity. }
    rewrite map_id. exact F.
  - exists cur1. auto.
  - unfold same_counters. auto.
Qed.

Lemma quiesce_ctraj f rw x2 : good (x_sys x1) -> ctraj x1 -> quiesce cfg f rw x1 = Ok x2 -> ctraj x2.
Proof.
  intros G C H.
  destruct (quiesce_ind cfg alloc oldest init t0 ctraj
              (fun x t x' Q Gx Hi Ht => ctraj_step x t x' Q Gx Hi Ht) f rw x1 x2 G C H) as [Q _].
  exact Q.
Qed.

End Traj.
