(** C02: the sx-level monitor of Run/R02.v ([mon_life]) versus the crash model's theorems.

    Run/R02.v has no function "run02 inp" that GENERATES an observation from the input: its model tie
    ([tie_life]) is a trace validation of the implementation's own I/O log.  So "the monitor is
    silent on the model" cannot be stated as [mon02 inp (run02 inp) = []].  What is stated and proved
    here instead is the connection between the monitor's clauses and the model's safety theorem
    [CrashRepeatSafe.repeated_crash]:

    (1) the model's observation of the restart probe, RELATIONALLY ([model_get_obs], [model_fm_obs]):
        which answers to [Get key] / [FindMissing key] the crash model admits right after the restart
        on the medium [m] left by a history [H] of lives.  A [Get] either misses (the key-location
        map's probing is not modelled: a miss is always possible), or some record of the key resolves
        and the bytes of its location — as [hist_data H] left them — are served.  The bytes are the
        content of ONE object version iff the location is exactly the allocation of one completed
        upload of that key which owns every byte of it ([designates]); otherwise they are foreign /
        garbage bytes and ANY payload may be observed.  [probe_get_silent_on_model]: the monitor's
        [get_clauses] is silent on every model observation — the foreign disjunct is REFUTED by
        [repeated_crash], the good one is accepted because the history's uploads are uploads the
        input attempted ([labelled]).
    (2) the list form: the probe component of [mon_life]'s clause list ([probe_clauses]) is empty on
        a probe list whose i-th entry is a model observation for key i ([probe_silent_on_model]).
    (3) [mon_life] decomposed ([mon_life_nil_iff]) and the tree form
        [mon02_silent_on_model_partial]: on an observation tree every node of which (depth >= 1) is
        reached by a model history — one more life per nesting level, [model_tree] — and whose probe
        components are model observations, [mon_life] reports nothing.  PARTIAL: the [final] and
        [opres] components (reads in a RUNNING store after the restart and after further uploads)
        are assumed clean by an explicit hypothesis of [model_tree], or — the only case the crash
        model can speak about — are themselves model observations of the restart medium, which is
        what they are when the life has made no model step (see the comment at [model_tree]).

    Abstractions (say what the labelling means).  The model has keys ([N]) but no object versions and
    no bytes.  [ver j k] labels upload [k] of life [j] with the version it uploaded; "the bytes are
    exactly that upload's content" is rendered as the harness's canonical payload (1 key ver), which
    presumes that distinct versions of one key have distinct contents (harness/c02.go generates at
    most one empty version per key; [c02Content] stamps the version into byte 1).  The probe reads are
    modelled as reads of the restart medium: side effects of earlier probe reads in the running store
    (a Get may refresh an object into a new block) are not modelled; [C02.no_overwrite_after_restart]
    is the model's statement that such writes do not touch resolvable locations.  [L [A 14]]
    (UNAVAILABLE: the refresh could not allocate) is admitted as an always-possible answer for the
    same reason.  Stdlib only; no axioms. *)
From Coq Require Import List NArith ZArith Bool Arith Lia.
From BBS Require Import Common.Sx Persist.PBL Persist.Crash Persist.CrashLts Persist.CrashRepeat
                        Persist.CrashRepeatSafe Run.R02.
Import ListNotations.
Local Open Scope Z_scope.

Definition probe_entry (opss : list sx) (kp : Z * sx) : list Z :=
  fm_clauses (sx_nth (snd kp) 0) ++ get_clauses opss (fst kp) (sx_nth (snd kp) 1).
Definition probe_clauses (opss : list sx) (obs : sx) : list Z :=
  flat_map (probe_entry opss) (zip_index 0 (sx_list (sx_nth obs 2))).
Definition final_clauses (opss : list sx) (obs : sx) : list Z :=
  flat_map (fun kg => get_clauses opss (fst kg) (snd kg)) (zip_index 0 (sx_list (sx_nth obs 4))).
Definition opres_clauses (opss : list sx) (ops obs : sx) : list Z :=
  flat_map (fun oo => match sx_Z (sx_nth (fst oo) 0) with
                      | 5 => get_clauses opss (sx_Z (sx_nth (fst oo) 1)) (snd oo)
                      | 6 => fm_clauses (snd oo)
                      | _ => []
                      end)
           (combine (sx_list ops) (sx_list (sx_nth obs 3))).
Definition here_clauses (d : nat) (opss : list sx) (ops obs : sx) : list Z :=
  match d with
  | O => []
  | _ => probe_clauses opss obs ++ final_clauses opss obs ++ opres_clauses opss ops obs
  end.

Lemma mon_life_S f d opss ing obs :
  mon_life (S f) d opss ing obs =
  if abnormal obs then [3%Z] else
    here_clauses d (sx_nth ing 0 :: opss) (sx_nth ing 0) obs ++
    flat_map (fun eo => mon_life f (S d) (sx_nth ing 0 :: opss) (sx_nth (fst eo) 6) (sx_nth (snd eo) 4))
             (combine (sx_list (sx_nth ing 1)) (sx_list (sx_nth obs 6))).
Proof. destruct d; reflexivity. Qed.

Lemma flat_map_nil_iff {A B} (f : A -> list B) (l : list A) :
  flat_map f l = [] <-> Forall (fun x => f x = []) l.
Proof.
  induction l as [|x l IH]; cbn [flat_map].
  - split; intros; [constructor|reflexivity].
  - split.
    + intros E. apply app_eq_nil in E. destruct E as [E1 E2]. constructor; [exact E1|apply IH; exact E2].
    + intros F. inversion F as [|? ? F1 F2]; subst. rewrite F1. apply IH. exact F2.
Qed.

(** [mon_life] reports nothing iff the node is not abnormal, its three components (at depth >= 1)
    are empty, and every experiment's subtree reports nothing *)
Theorem mon_life_nil_iff f d opss ing obs :
  mon_life (S f) d opss ing obs = [] <->
  abnormal obs = false /\
  (d <> O -> probe_clauses (sx_nth ing 0 :: opss) obs = [] /\
             final_clauses (sx_nth ing 0 :: opss) obs = [] /\
             opres_clauses (sx_nth ing 0 :: opss) (sx_nth ing 0) obs = []) /\
  Forall (fun eo => mon_life f (S d) (sx_nth ing 0 :: opss) (sx_nth (fst eo) 6) (sx_nth (snd eo) 4) = [])
         (combine (sx_list (sx_nth ing 1)) (sx_list (sx_nth obs 6))).
Proof.
  rewrite mon_life_S. destruct (abnormal obs).
  - split; [discriminate|]. intros (E & _). discriminate.
  - split.
    + intros E. apply app_eq_nil in E. destruct E as [E1 E2]. split; [reflexivity|]. split.
      * intros Hd. destruct d as [|d]; [contradiction|]. cbn [here_clauses] in E1.
        apply app_eq_nil in E1. destruct E1 as [E1 E3]. apply app_eq_nil in E3. destruct E3 as [E3 E4].
        repeat split; assumption.
      * apply flat_map_nil_iff. exact E2.
    + intros (_ & Hh & Hc). apply flat_map_nil_iff in Hc. rewrite Hc, app_nil_r.
      destruct d as [|d]; [reflexivity|]. cbn [here_clauses].
      destruct (Hh (Nat.neq_succ_0 d)) as (E1 & E2 & E3). rewrite E1, E2, E3. reflexivity.
Qed.

Fixpoint indexed {T} (P : Z -> T -> Prop) (i : Z) (l : list T) : Prop :=
  match l with
  | [] => True
  | x :: t => P i x /\ indexed P (i + 1) t
  end.

Lemma flat_map_zip_index_nil {T B} (f : Z * T -> list B) (P : Z -> T -> Prop) :
  (forall i x, P i x -> f (i, x) = []) ->
  forall l i, indexed P i l -> flat_map f (zip_index i l) = [].
Proof.
  intros Hf. induction l as [|x l IH]; intros i Hl; [reflexivity|].
  cbn [zip_index flat_map]. destruct Hl as [Hx Hl]. rewrite (Hf i x Hx). apply IH. exact Hl.
Qed.

Lemma indexed_nth {T} (P : Z -> T -> Prop) : forall l i n x, indexed P i l -> nth_error l n = Some x ->
  P (i + Z.of_nat n) x.
Proof.
  induction l as [|y l IH]; intros i n x Hl Hn; [destruct n; discriminate|].
  destruct Hl as [Hy Hl]. destruct n as [|n].
  - injection Hn as <-. replace (i + Z.of_nat 0) with i by lia. exact Hy.
  - replace (i + Z.of_nat (S n)) with (i + 1 + Z.of_nat n) by lia. apply (IH _ _ _ Hl Hn).
Qed.

Lemma attempted_cons ops opss key v : attempted opss key v = true -> attempted (ops :: opss) key v = true.
Proof. unfold attempted. intros E. cbn [existsb]. rewrite E. apply orb_true_r. Qed.

Section Model.
  Variable g : geo.
  (** [ver j k]: the object version uploaded by upload [k] of life [j] *)
  Variable ver : nat -> nat -> Z.

  (** the geometry hypotheses of [repeated_crash] *)
  Definition geo_ok : Prop :=
    (length (g_locs g) < 65536)%nat /\ NoDup (g_locs g) /\ (0 < g_sector g)%Z.

  (** every upload of the model history is an upload the input's op lists attempted
      ([opss] = the op lists of the lives along the path, as [mon_life] accumulates them) *)
  Definition labelled (H : list life) (opss : list sx) : Prop :=
    forall j lf k up, nth_error H j = Some lf -> nth_error (cs_ups (lf_c lf)) k = Some up ->
      attempted opss (Z.of_N (up_key up)) (ver j k) = true.

  Lemma labelled_cons H ops opss : labelled H opss -> labelled H (ops :: opss).
  Proof. intros HL j lf k up Hj Hk. apply attempted_cons. exact (HL j lf k up Hj Hk). Qed.

  Lemma labelled_nil opss : labelled [] opss.
  Proof. intros j lf k up Hj. destruct j; discriminate. Qed.

  (** the location of record [r] in region [l] is exactly the allocation of the completed upload
      (life [j], index [k]) of the record's key, and that upload owns every byte of it on the data
      device as the history left it: the bytes there are that upload's content, nothing else *)
  Definition designates (H : list life) (l : loc) (r : irec) (j k : nat) : Prop :=
    exists lf up, nth_error H j = Some lf /\ nth_error (cs_ups (lf_c lf)) k = Some up /\
      up_key up = r_key r /\ up_off up = r_off r /\ up_size up = r_size r /\
      up_state up = UpFin true /\ up_issued up = up_size up /\
      forall z, (r_off r <= z < r_off r + r_size r)%Z -> towner (hist_data H) l z None = Some (j, k).

  (** the same without the key: "one completed upload, whose allocation is exactly the range, owns
      every byte".  For a non-empty range it determines the upload, and then the key follows
      ([owner_designates]); for an empty range the bytes say nothing and the key is part of
      [designates]. *)
  Definition owned_by (H : list life) (l : loc) (r : irec) (j k : nat) : Prop :=
    exists lf up, nth_error H j = Some lf /\ nth_error (cs_ups (lf_c lf)) k = Some up /\
      up_off up = r_off r /\ up_size up = r_size r /\
      up_state up = UpFin true /\ up_issued up = up_size up /\
      forall z, (r_off r <= z < r_off r + r_size r)%Z -> towner (hist_data H) l z None = Some (j, k).

  Lemma designates_owned H l r j k : designates H l r j k -> owned_by H l r j k.
  Proof.
    intros (lf & up & A1 & A2 & A3 & A4 & A5 & A6 & A7 & A8). exists lf, up. repeat split; assumption.
  Qed.

  (** what [repeated_crash] says, in these words *)
  Lemma resolved_designates H m slot r i b : geo_ok -> lives g H m ->
    resolves g m slot r i -> nth_error (blocks (fst (restart (geom g) (m_state m)))) i = Some b ->
    exists j k, designates H (b_loc b) r j k.
  Proof.
    intros (G1 & G2 & G3) HL HR Hb.
    destruct (repeated_crash g H m G1 G2 G3 HL slot r i HR)
      as (j & lf & k & up & b' & l & A1 & A2 & A3 & A4 & A5 & A6 & A7 & _ & _ & A10 & A11 & _ & A13).
    unfold pre in A10. rewrite Hb in A10. injection A10 as <-. subst l.
    exists j, k, lf, up. repeat split; assumption.
  Qed.

  (** [towner] is a function: on a non-empty range the owner is the upload [repeated_crash] names *)
  Lemma owner_designates H m slot r i b j k : geo_ok -> lives g H m ->
    resolves g m slot r i -> nth_error (blocks (fst (restart (geom g) (m_state m)))) i = Some b ->
    (0 < r_size r)%Z -> owned_by H (b_loc b) r j k -> designates H (b_loc b) r j k.
  Proof.
    intros G HL HR Hb Hs (lf & up & A1 & A2 & A3 & A4 & A5 & A6 & A7).
    destruct (resolved_designates H m slot r i b G HL HR Hb)
      as (j' & k' & lf' & up' & B1 & B2 & B3 & B4 & B5 & B6 & B7 & B8).
    assert (Hz : (r_off r <= r_off r < r_off r + r_size r)%Z) by lia.
    pose proof (A7 _ Hz) as E1. pose proof (B8 _ Hz) as E2. rewrite E1 in E2.
    injection E2 as <- <-. rewrite A1 in B1. injection B1 as <-. rewrite A2 in B2. injection B2 as <-.
    exists lf, up. repeat split; assumption.
  Qed.

  Inductive model_get_obs (H : list life) (m : medium irec) (key : Z) : sx -> Prop :=
  | mgo_miss : model_get_obs H m key (L [A 5])          (* NOT_FOUND: always possible *)
  | mgo_unavailable : model_get_obs H m key (L [A 14])  (* refresh could not allocate: not modelled *)
  | mgo_served slot r i b j k :
      resolves g m slot r i -> Z.of_N (r_key r) = key ->
      nth_error (blocks (fst (restart (geom g) (m_state m)))) i = Some b ->
      designates H (b_loc b) r j k ->
      model_get_obs H m key (L [A 0; L [A 1; A key; A (ver j k)]])
  | mgo_foreign slot r i b pay :                        (* anything at all may be read *)
      resolves g m slot r i -> Z.of_N (r_key r) = key ->
      nth_error (blocks (fst (restart (geom g) (m_state m)))) i = Some b ->
      (forall j k, ~ designates H (b_loc b) r j k) ->
      model_get_obs H m key (L [A 0; pay]).

  (** FindMissing of one key: missing is always possible; present only if a record of it resolves *)
  Inductive model_fm_obs (m : medium irec) (key : Z) : sx -> Prop :=
  | mfo_missing : model_fm_obs m key (L [A 0; L [A key]])
  | mfo_unavailable : model_fm_obs m key (L [A 14])
  | mfo_present slot r i :
      resolves g m slot r i -> Z.of_N (r_key r) = key -> model_fm_obs m key (L [A 0; L []]).

  (** the foreign disjunct is empty: stated on its own (the content of [repeated_crash] at this level) *)
  Theorem model_get_obs_never_foreign H m key o : geo_ok -> lives g H m -> model_get_obs H m key o ->
    o = L [A 5] \/ o = L [A 14] \/
    exists slot r i b j k, resolves g m slot r i /\ Z.of_N (r_key r) = key /\
      nth_error (blocks (fst (restart (geom g) (m_state m)))) i = Some b /\
      designates H (b_loc b) r j k /\ o = L [A 0; L [A 1; A key; A (ver j k)]].
  Proof.
    intros G HL MO. destruct MO as [| |slot r i b j k HR Hk Hb HD|slot r i b pay HR Hk Hb HN].
    - left. reflexivity.
    - right. left. reflexivity.
    - right. right. exists slot, r, i, b, j, k.
      split; [exact HR|split; [exact Hk|split; [exact Hb|split; [exact HD|reflexivity]]]].
    - exfalso. destruct (resolved_designates H m slot r i b G HL HR Hb) as (j & k & HD).
      exact (HN j k HD).
  Qed.

  Theorem probe_get_silent_on_model H m opss key o : geo_ok -> lives g H m -> labelled H opss ->
    model_get_obs H m key o -> get_clauses opss key o = [].
  Proof.
    intros G HL Lb MO.
    destruct (model_get_obs_never_foreign H m key o G HL MO)
      as [->|[->|(slot & r & i & b & j & k & _ & Hk & _ & (lf & up & A1 & A2 & A3 & _) & ->)]]; [reflexivity|reflexivity|].
    pose proof (Lb j lf k up A1 A2) as Hatt. rewrite A3, Hk in Hatt.
    unfold get_clauses. cbn [sx_list sx_nth nth sx_Z]. rewrite !Z.eqb_refl, Hatt. reflexivity.
  Qed.

  Theorem probe_fm_silent_on_model m key o : model_fm_obs m key o -> fm_clauses o = [].
  Proof. intros MO. destruct MO; reflexivity. Qed.

  (** entry for key [key] of the probe list: (fm get) *)
  Definition model_probe_obs (H : list life) (m : medium irec) (key : Z) (e : sx) : Prop :=
    model_fm_obs m key (sx_nth e 0) /\ model_get_obs H m key (sx_nth e 1).

  Theorem probe_silent_on_model H m opss probe : geo_ok -> lives g H m -> labelled H opss ->
    indexed (model_probe_obs H m) 0 probe ->
    flat_map (probe_entry opss) (zip_index 0 probe) = [].
  Proof.
    intros G HL Lb. apply flat_map_zip_index_nil. intros i e (Hf & Hg). unfold probe_entry. cbn [fst snd].
    rewrite (probe_fm_silent_on_model m i _ Hf), (probe_get_silent_on_model H m opss i _ G HL Lb Hg).
    reflexivity.
  Qed.

  (** the same for a list of [Get] answers, one per key (the shape of the [final] component) *)
  Theorem gets_silent_on_model H m opss gets : geo_ok -> lives g H m -> labelled H opss ->
    indexed (model_get_obs H m) 0 gets ->
    flat_map (fun kg => get_clauses opss (fst kg) (snd kg)) (zip_index 0 gets) = [].
  Proof.
    intros G HL Lb. apply flat_map_zip_index_nil. intros i e Hg. cbn [fst snd].
    exact (probe_get_silent_on_model H m opss i _ G HL Lb Hg).
  Qed.

  (** FindMissing of a key list: UNAVAILABLE, or the list of missing keys; a key reported present has
      a resolving record *)
  Definition model_fms_obs (m : medium irec) (keys : list Z) (o : sx) : Prop :=
    o = L [A 14] \/
    exists miss, o = L [A 0; L (map A miss)] /\
      forall k, In k keys -> ~ In k miss -> exists slot r i, resolves g m slot r i /\ Z.of_N (r_key r) = k.

  (** the answer to one operation of the op list, read as an operation on the restart medium:
      (5 key) = Get, (6 (key ...)) = FindMissing, anything else is not looked at by the monitor *)
  Definition model_opres_obs (H : list life) (m : medium irec) (oo : sx * sx) : Prop :=
    match sx_Z (sx_nth (fst oo) 0) with
    | 5 => model_get_obs H m (sx_Z (sx_nth (fst oo) 1)) (snd oo)
    | 6 => model_fms_obs m (sx_Zs (sx_nth (fst oo) 1)) (snd oo)
    | _ => True
    end.

  Theorem opres_silent_on_model H m opss ops obs : geo_ok -> lives g H m -> labelled H opss ->
    Forall (model_opres_obs H m) (combine (sx_list ops) (sx_list (sx_nth obs 3))) ->
    opres_clauses opss ops obs = [].
  Proof.
    intros G HL Lb F. unfold opres_clauses. apply flat_map_nil_iff. eapply Forall_impl; [|exact F].
    intros oo Ho. unfold model_opres_obs in Ho. destruct (sx_Z (sx_nth (fst oo) 0)) as [|p|p]; try reflexivity.
    destruct p as [p|p|]; try reflexivity; destruct p as [p|p|]; try reflexivity;
      destruct p as [p|p|]; try reflexivity.
    - (* 5 *) exact (probe_get_silent_on_model H m opss _ _ G HL Lb Ho).
    - (* 6 *) destruct Ho as [->|(miss & -> & _)]; reflexivity.
  Qed.

  (** observation trees reached by model histories:
      [model_tree d H m opss ing obs]: the node (ing, obs) at depth [d] is the observation of a life that
      started on the medium [m] left by the history [H] ([d] = length H; [opss] = the op lists of the
      lives of [H], newest first).  At depth >= 1 its probe list consists of model observations for
      [H], [m].  Every experiment of the node is a crash of this life: a model life [lf] on [m] (any
      reachable state, any crash point, any loss choice) whose uploads are labelled by the node's op
      list, and the subtree is a model tree for the history [H ++ [lf]] and the medium the crash
      leaves.  (The judge's [tie_life] checks, case by case, that the implementation's media after
      each crash are what [crash_medium] computes from the implementation's own log; here the life
      is the model's.)

      The [final] and [opres] components are answers of a RUNNING store: after the restart, after
      the probe, after the life's own operations.  They are ASSUMED clean (left disjuncts).  Why the
      crash model cannot do better: the LTS [crun] has no read event and no volatile view of the
      data device — a running store reads every write ISSUED so far through its volatile index
      ([cs_tbl], [live_index]), not the post-crash selection [crash_medium]; that every record the
      volatile index accepts designates a completed upload owning its bytes in that view is the
      running-store analogue of [SafeF], a different invariant, not a consequence of the crash
      theorems.  Nor is a life without upload operations quiescent: a Get of an object in an old
      block refreshes it (allocation, data writes, a record move — in the LTS [CPutStart] / [CData] /
      [CFinalize] with a move), block rotation may release blocks, the syncer loops write state
      files; so "no store step" cannot be read off the op list.  The one case the crash model does
      describe is a life that has made NO model step at all (its state is [cinit g m t0]): then the
      store reads exactly the restart medium and its answers are [model_get_obs] answers for
      [H], [m] — the right disjuncts, covered by [gets_silent_on_model] / [opres_silent_on_model].
      Whether that is the case is a hypothesis about the node, like everything in [model_tree]. *)
  Inductive model_tree : nat -> list life -> medium irec -> list sx -> sx -> sx -> Prop :=
  | mt_node d H m opss ing obs :
      abnormal obs = false ->
      (d <> O ->
         indexed (model_probe_obs H m) 0 (sx_list (sx_nth obs 2)) /\
         (final_clauses (sx_nth ing 0 :: opss) obs = [] \/
          indexed (model_get_obs H m) 0 (sx_list (sx_nth obs 4))) /\
         (opres_clauses (sx_nth ing 0 :: opss) (sx_nth ing 0) obs = [] \/
          Forall (model_opres_obs H m) (combine (sx_list (sx_nth ing 0)) (sx_list (sx_nth obs 3))))) ->
      Forall (fun eo => exists lf,
                creach g (lf_cfg lf) m (lf_t0 lf) (lf_c lf) /\
                labelled (H ++ [lf]) (sx_nth ing 0 :: opss) /\
                model_tree (S d) (H ++ [lf]) (crash_of m (lf_c lf) (lf_n lf) (lf_ch lf))
                           (sx_nth ing 0 :: opss) (sx_nth (fst eo) 6) (sx_nth (snd eo) 4))
             (combine (sx_list (sx_nth ing 1)) (sx_list (sx_nth obs 6))) ->
      model_tree d H m opss ing obs.

  Theorem mon_life_silent_on_model_tree : geo_ok -> forall fuel d H m opss ing obs,
    lives g H m -> labelled H opss -> model_tree d H m opss ing obs ->
    mon_life fuel d opss ing obs = [].
  Proof.
    intros G. induction fuel as [|f IH]; intros d H m opss ing obs HL Lb MT; [reflexivity|].
    inversion MT as [d' H' m' opss' ing' obs' Hab Hh Hc]; subst.
    apply mon_life_nil_iff. split; [exact Hab|]. split.
    - intros Hd. destruct (Hh Hd) as (Hp & Hf & Ho).
      pose proof (labelled_cons H (sx_nth ing 0) opss Lb) as Lb1. split; [|split].
      + apply (probe_silent_on_model H m); [exact G|exact HL|exact Lb1|exact Hp].
      + destruct Hf as [Hf|Hf]; [exact Hf|]. exact (gets_silent_on_model H m _ _ G HL Lb1 Hf).
      + destruct Ho as [Ho|Ho]; [exact Ho|]. exact (opres_silent_on_model H m _ _ _ G HL Lb1 Ho).
    - eapply Forall_impl; [|exact Hc]. intros eo (lf & HR & Lb' & MT').
      apply (IH _ _ _ _ _ _ (lives_snoc g H m lf HL HR) Lb' MT').
  Qed.

  (** the root: the first life, on empty media, nothing accumulated *)
  Theorem mon02_silent_on_model_partial : geo_ok -> forall fuel ing obs,
    model_tree 0 [] medium_empty [] ing obs -> mon_life fuel 0 [] ing obs = [].
  Proof.
    intros G fuel ing obs MT.
    exact (mon_life_silent_on_model_tree G fuel 0%nat [] medium_empty [] ing obs (lives_nil g) (labelled_nil []) MT).
  Qed.
End Model.
