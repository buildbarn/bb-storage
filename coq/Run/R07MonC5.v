(** C07, "the monitor is silent on the model" — part 9: clause 5 (the put
    loop waits while an acknowledged upload is not covered by the last state
    write that completed).

    Model side: [pX] — once the final sync has been started the list is closed
    for writing and every epoch is being synchronized, and once it has
    completed every epoch is synchronized (so ProcessBlockPut returns false
    only when nothing is left); the put loop's program counters fall into three
    classes ([nf]: between a sync completion and the completion of the loop's
    own state write, [pwr]: its state write is in flight, fresh: the rest) and
    the only way from [nf] to fresh leads through a successful state write of
    the put loop itself. *)
From Coq Require Import List NArith ZArith Bool Arith Lia.
From BBS Require Import Common.Sx Persist.PBL Persist.PBLProofs Persist.Syncer Persist.SyncerProofs
  Persist.LiveActs Persist.LiveCover Persist.LiveRelease Run.R07 Run.R07MonBase Run.R07MonOps Run.R07MonC123
  Run.R07MonCov1 Run.R07MonCov2 Run.R07MonCov3.
Import ListNotations.
Local Open Scope nat_scope.

Definition pXc (p : pbl) : Prop := closedForWriting p = true /\ synchronizingEpochs p = length (epochSeeds p).
Definition pXd (p : pbl) : Prop := closedForWriting p = true /\ synchronizedEpochs p = length (epochSeeds p).

Definition pX (s : sys) : Prop :=
  match s_p s with
  | PSyncing false true | PSyncSleep false true _ | PSyncRet false true => pXc (s_pbl s)
  | PW false _ | PExit => pXd (s_pbl s)
  | _ => True
  end.

Lemma fin_closed tok blk size seed p : closedForWriting p = true ->
  put_finalize tok blk size seed p = Ok (p, match tok with PutClosed => FinClosed | PutAt _ => match blk with None => FinBlockError | Some _ => FinClosed end end).
Proof.
  intros Hc. unfold put_finalize. destruct tok; [reflexivity|]. destruct blk; [|reflexivity]. rewrite Hc. reflexivity.
Qed.

(** calls other than the sync notifications keep both facts *)
Lemma pX_act a p p' : pbl_inv p -> apply_act a p = Ok p' ->
  match a with ASyncStart | ASyncDone _ => True | _ => (pXc p -> pXc p') /\ (pXd p -> pXd p') end.
Proof.
  intros I Ha. destruct a as [|al| |tok blk size seed| |b|t|t]; cbn [apply_act] in Ha; auto.
  - inversion Ha; subst. auto.
  - inversion Ha; subst. unfold push_back. split; intros [Hc H]; rewrite Hc; cbn; split; auto.
  - destruct (blocks p) as [|fb rest] eqn:Eb; [unfold pop_front in Ha; rewrite Eb in Ha; discriminate|].
    destruct (pop_fields _ _ _ _ Eb Ha) as [_ [Fs [_ [_ [Fsy [Fsd [_ [_ [_ [Fc _]]]]]]]]]].
    unfold pXc, pXd. rewrite Fs, Fsy, Fsd, Fc, skipn_length. split; intros [Hc H]; split; auto; lia.
  - split; intros [Hc H]; rewrite (fin_closed tok blk size seed p Hc) in Ha; cbn in Ha; inversion Ha; subst; split; auto.
  - destruct (get_persistent_state p) as [[p1 st]|] eqn:Eg; [|discriminate]. cbn in Ha. inversion Ha; subst.
    destruct (gps_fields _ _ _ Eg) as [Hc [_ [_ [_ [Fc _]]]]]. unfold core in Hc. injection Hc as H1 H2 H3 H4 H5 H6.
    unfold pXc, pXd. rewrite Fc, H2, H5, H6. auto.
  - destruct (nsw_fields _ _ Ha) as [Hc [_ [_ [_ [Fc _]]]]]. unfold core in Hc. injection Hc as H1 H2 H3 H4 H5 H6.
    unfold pXc, pXd. rewrite Fc, H2, H5, H6. auto.
Qed.

Lemma step_pX cfg s e s' : inv1 s -> pX s -> step cfg s e = Some (Ok s') -> pX s'.
Proof.
  intros II X Hs. pose proof (step_act _ _ _ _ Hs) as Ha. pose proof (proj1 II) as Ip.
  destruct e as [al| |index size|k blk seed|d| |t a].
  1-6: (match type of Hs with step _ _ ?e = _ =>
          assert (forall t a, e <> EStep t a) as Hne by (intros t1 a0 H0; discriminate H0) end;
        destruct (env_frame cfg s _ s' Hne Hs) as [_ Ep];
        pose proof (pX_act _ _ _ Ip Ha) as F; revert F X; unfold pX; rewrite Ep; cbn [act_of];
        try (destruct (nth_error (s_uploads s) k) as [[[tok sz]|]|]);
        intros [F1 F2]; destruct (s_p s) as [| | | | |[] []|[] []|[] [] ?|[] ?|]; auto).
  destruct t; cbn [step] in Hs.
  - (* the release loop *)
    pose proof (rstep_frame _ _ _ _ II Hs) as Ep. pose proof (pX_act _ _ _ Ip Ha) as F. revert F X. unfold pX. rewrite Ep.
    cbn [act_of]. destruct (s_r s) as [| |[]]; cbn [wact]; intros [F1 F2];
      destruct (s_p s) as [| | | | |[] []|[] []|[] [] ?|[] ?|]; auto.
  - (* the put loop *)
    destruct (pstep_shape _ _ _ _ II Hs) as [_ [_ [Sh _]]]. pose proof (pX_act _ _ _ Ip Ha) as F.
    revert Sh F X Ha. unfold pX. cbn [act_of].
    destruct (s_p s) as [|ch|ch|dl|keep|keep final|keep final|keep final dl|keep w|]; intros Sh F X Ha.
    + destruct Sh as [c ->]. exact I.
    + destruct Sh as [->| ->]; exact I.
    + destruct Sh as [[_ ->]| ->]; exact I.
    + destruct Sh as [[_ [-> _]]|[-> _]]; exact I.
    + rewrite Sh. destruct keep; exact I.
    + destruct F as [F1 F2]. destruct Sh as [[_ ->]|[_ ->]]; destruct keep, final; auto.
    + cbn [apply_act] in Ha. inversion Ha as [Hp]. clear Ha.
      destruct (nsc_fields (s_pbl s)) as [_ [Fs [_ [_ [Fsy [Fsd [_ [_ [_ [Fc _]]]]]]]]]].
      destruct Sh as [[-> [-> ->]]|[Hkf ->]].
      * cbn [negb andb]. unfold pXc. cbn. auto.
      * destruct keep; [exact I|]. destruct final; [|destruct Hkf; discriminate].
        cbn [negb andb]. destruct X as [Xc Xs]. unfold pXd. rewrite Fc, Fsd, Fs. auto.
    + destruct F as [F1 F2]. rewrite Sh. destruct keep, final; auto.
    + destruct Sh as [[w' [-> _]]|[-> ->]]; destruct keep; try exact I.
      * destruct w; cbn [wact] in F; destruct F as [_ F2]; auto.
      * cbn [wact] in F. destruct F as [_ F2]. auto.
    + destruct Sh.
Qed.

Definition nf (p : ppc) : bool :=
  match p with
  | PSyncRet _ _ | PW _ WAcquire | PW _ WGetState | PW _ (WSleep _) | PSyncing _ true | PSyncSleep _ true _ => true
  | _ => false
  end.
Definition pwr (p : ppc) : bool := match p with PW _ (WWriting _) => true | _ => false end.
Definition fresh (p : ppc) : bool := negb (nf p) && negb (pwr p).

Lemma int_class cfg s s' : inv1 s -> p_internal cfg s = true -> pstep cfg internal_ans s = Some (Ok s') ->
  (fresh (s_p s') = true -> fresh (s_p s) = true) /\ (pwr (s_p s') = true -> at_getstate TP s = true)
  /\ pwr (s_p s) = false.
Proof.
  intros II Hi Hs. destruct (pstep_internal _ _ _ II Hi Hs) as [P _]. unfold at_getstate.
  destruct P; cbn; splits; auto; discriminate.
Qed.

Section Class.
Variable cfg : config.
Variable alloc : loc -> Z -> bool.
Variable oldest : N.
Variable init : list bstate.
Variable t0 : N.
Notation good := (good cfg alloc oldest init t0).
Notation rel1 := (rel1 cfg alloc oldest init t0).

Lemma quiesce_pX f rw x1 x2 : good (x_sys x1) -> pX (x_sys x1) -> quiesce cfg f rw x1 = Ok x2 -> pX (x_sys x2).
Proof.
  intros G X H.
  destruct (quiesce_ind cfg alloc oldest init t0 (fun xc => pX (x_sys xc))) with (f := f) (rw := rw) (x := x1) (x2 := x2)
    as [Q _]; auto.
  intros x t x' P Gx Hi Ht. destruct (tstep_ok _ _ _ _ _ Ht) as [Hs _].
  eapply step_pX; [exact (good_inv1 _ _ _ _ _ _ Gx)|exact P|exact Hs].
Qed.

Lemma tri_pX op x x1 res : good (x_sys x) -> pX (x_sys x) -> tri cfg op x x1 res -> pX (x_sys x1).
Proof.
  intros G X [[-> _]|[[e [_ [Hs _]]]|[t [a [_ Ht]]]]]; auto.
  - eapply step_pX; [exact (good_inv1 _ _ _ _ _ _ G)|exact X|exact Hs].
  - destruct (tstep_ok _ _ _ _ _ Ht) as [Hs _]. eapply step_pX; [exact (good_inv1 _ _ _ _ _ _ G)|exact X|exact Hs].
Qed.

Record ctj (x1 xc : xst) : Prop := mkCtj {
  cj_fresh : fresh (s_p (x_sys xc)) = true -> fresh (s_p (x_sys x1)) = true;
  cj_pwr : pwr (s_p (x_sys xc)) = true -> s_p (x_sys xc) = s_p (x_sys x1) \/ x_nwr x1 < x_nwr xc;
  cj_nwr : x_nwr x1 <= x_nwr xc
}.

Lemma class_traj f rw x1 x2 : good (x_sys x1) -> quiesce cfg f rw x1 = Ok x2 -> ctj x1 x2.
Proof.
  intros G H.
  destruct (quiesce_ind cfg alloc oldest init t0 (ctj x1)) with (f := f) (rw := rw) (x := x1) (x2 := x2) as [Q _]; auto.
  2:{ constructor; auto. }
  intros x t x' [P1 P2 P3] Gx Hi Ht. destruct (tstep_ok _ _ _ _ _ Ht) as [Hs [_ [Hwr _]]].
  pose proof (good_inv1 _ _ _ _ _ _ Gx) as II.
  assert (Hmono : x_nwr x <= x_nwr x') by (rewrite Hwr; destruct (at_getstate t (x_sys x)); lia).
  destruct t; cbn [step t_internal] in *.
  - pose proof (rstep_frame _ _ _ _ II Hs) as Ep. constructor; rewrite ?Ep; auto; [|lia].
    intros Hp. destruct (P2 Hp) as [E|E]; [left; exact E|right; lia].
  - destruct (int_class _ _ _ II Hi Hs) as [C1 [C2 C3]]. constructor; auto; [|lia].
    intros Hp. right. rewrite Hwr, (C2 Hp). lia.
Qed.

(** what the operation itself does to the class *)
Lemma op_class m x op x1 res xo : rel1 m x -> tri cfg op x x1 res ->
  x_nwr x1 = x_nwr x /\
  (fresh (s_p (x_sys x1)) = true ->
     (fresh (s_p (x_sys x)) = true /\ ms_sync_ok op (enc_obs res xo) = false
      /\ (ms_write_done op (enc_obs res xo) = true -> writer (x_sys x) = Some TR)) \/
     (pwr (s_p (x_sys x)) = true /\ ms_write_ok op (enc_obs res xo) = true)) /\
  (pwr (s_p (x_sys x1)) = true ->
     s_p (x_sys x1) = s_p (x_sys x) /\ ms_sync_ok op (enc_obs res xo) = false
     /\ ms_write_done op (enc_obs res xo) = false).
Proof.
  intros R T. pose proof (r1_good _ _ _ _ _ _ _ R) as G. pose proof (good_inv1 _ _ _ _ _ _ G) as II.
  destruct (reachable_inv_all _ _ _ _ _ _ (proj1 G)) as [_ [_ [I3 _]]].
  unfold ms_sync_ok, ms_sync_done, ms_write_ok, ms_write_done, ms_hit. rewrite obs_nth0.
  destruct T as [[-> Hn]|[[e [He [Hs [En1 En2]]]]|[t [a [[Hres [Hat Hth]] Ht]]]]].
  - destruct Hn as [Hn1 _].
    assert (H5 : Z.eqb (tag op) 5 && Z.eqb (tag res) 1 = false).
    { destruct (Z.eqb_spec (tag op) 5) as [E|E]; [rewrite Hn1 by auto|]; reflexivity. }
    assert (H6 : Z.eqb (tag op) 6 && Z.eqb (tag res) 1 = false).
    { destruct (Z.eqb_spec (tag op) 6) as [E|E]; [rewrite Hn1 by auto|]; reflexivity. }
    rewrite H5, H6. cbn [andb]. splits; auto. intros Hf. left. splits; auto. discriminate.
  - destruct (env_ok_code _ _ _ _ He) as [Hne [_ [_ [_ [Hc5 [Hc6 _]]]]]].
    destruct (env_frame cfg _ _ _ Hne Hs) as [_ Ep].
    destruct (Z.eqb_spec (tag op) 5); [contradiction|]. destruct (Z.eqb_spec (tag op) 6); [contradiction|].
    cbn [andb]. rewrite Ep. splits; auto. intros Hf. left. splits; auto. discriminate.
  - destruct (tstep_ok _ _ _ _ _ Ht) as [Hs [_ [Hwr _]]].
    destruct (thr_act_none _ _ _ _ _ (conj Hres (conj Hat Hth))) as [_ Hng]. rewrite Hng in Hwr.
    split; [exact Hwr|].
    assert (Hhit : Z.eqb (tag res) 1 = true) by (rewrite Hres; reflexivity). rewrite Hhit, !andb_true_r.
    destruct t; cbn [step] in Hs.
    + pose proof (rstep_frame _ _ _ _ II Hs) as Ep. rewrite Ep.
      assert (Hc5 : Z.eqb (tag op) 5 = false).
      { destruct Hth as [[E [Et _]]|[[E _]|[E _]]]; [discriminate Et|rewrite E; reflexivity|rewrite E; reflexivity]. }
      rewrite Hc5. cbn [andb].
      assert (Hw6 : Z.eqb (tag op) 6 = true -> writer (x_sys x) = Some TR).
      { intros E6. destruct Hth as [[E _]|[[_ [Hw _]]|[E _]]]; [rewrite E in E6; discriminate|exact Hw|rewrite E in E6; discriminate]. }
      split.
      * intros Hf. left. splits; auto.
      * intros Hp. splits; auto. destruct (Z.eqb (tag op) 6) eqn:E6; [exfalso|reflexivity].
        destruct (writer_cases _ _ (Hw6 eq_refl)) as [[_ [st Er]]|[Et _]]; [|discriminate Et].
        unfold pwr in Hp. destruct (s_p (x_sys x)) as [| | | | | | | |k []|] eqn:Epp; try discriminate.
        destruct I3 as [_ I3]. unfold r_holds, p_holds in I3. rewrite Er, Epp in I3. discriminate.
    + (* the put loop: by the table of its external steps; the only way into a fresh
         position from outside is a successful state write *)
      destruct (pstep_external _ _ _ _ _ _ II (conj Hres (conj Hat Hth)) Hs) as [PE _].
      destruct PE as [k f|k f dl|k st|k st dl|dl b Hc|dl b|k f dl b|k dl b]; try destruct f; cbn;
        (split; [intros Hf|intros Hp; discriminate Hp]); try discriminate Hf.
      all: try (right; split; reflexivity).
      all: left; splits; [reflexivity|reflexivity|discriminate].
Qed.

End Class.

Definition ole (a b : option nat) : Prop :=
  match a with
  | None => True
  | Some j => match b with Some j' => j <= j' | None => False end
  end.

Lemma ole_refl a : ole a a.
Proof. destruct a; cbn; auto. Qed.

Lemma should_ole a b k : ole a b -> should a k = true -> should b k = true.
Proof.
  unfold ole, should. destruct a as [j|]; [|discriminate]. destruct b as [j'|]; [|intros []].
  intros Hle H. apply Nat.ltb_lt in H. apply Nat.ltb_lt. lia.
Qed.

(** the monitor's record of the write in flight is the new one or the old one *)
Lemma cur_cases m op o po :
  (exists c, snd (ms_nc m op o po) = Some (mkPendw c (ms_last_ok m op o) po) /\ m_nwr m < fst (ms_nc m op o po)) \/
  (snd (ms_nc m op o po) = ms_cur0 m op o /\ fst (ms_nc m op o po) = m_nwr m).
Proof.
  unfold ms_nc. destruct (ms_wobs o) as [w|]; [|right; auto].
  destruct (Nat.ltb_spec (m_nwr m) (sx_nat (sx_nth w 1))); [left; eexists; split; [reflexivity|exact H]|right; auto].
Qed.

(** when every epoch is synchronized every acknowledged upload still in the list is at level 2 *)
Lemma all_lv2 p k g : ack_ok p k g -> totalReleased p <= o_block (g_o g) ->
  synchronizedEpochs p = length (epochSeeds p) -> g_lv g = 2.
Proof.
  intros [_ [_ [A3 [T N]]]] Hge Hs. destruct (N Hge) as [[_ N2] _].
  destruct T as [T|[_ [_ [bb [la [_ [_ [_ [TD _]]]]]]]]]; [lia|].
  assert (o_epoch (g_o g) - g_d g < length (epochSeeds p)) by (apply nth_error_Some; congruence).
  destruct (Nat.eq_dec (g_lv g) 2); [assumption|]. specialize (N2 ltac:(lia)). lia.
Qed.

Section C5.
Variable cfg : config.
Variable alloc : loc -> Z -> bool.
Variable oldest : N.
Variable init : list bstate.
Variable t0 : N.
Notation good := (good cfg alloc oldest init t0).
Notation rel1 := (rel1 cfg alloc oldest init t0).
Notation rel2 := (rel2 cfg alloc oldest init t0).

Record rel5 (m : mst) (x : xst) : Prop := mkRel5 {
  r5_X : pX (x_sys x);
  r5_w : exists jw,
     (forall k, In k (m_acks m) -> zmem (k_loc k) (m_popped m) = false -> should jw k = true ->
                exists c, m_written m = Some c /\ covers c k = true)
     /\ (forall j, jw = Some j -> j <= m_step m)
     /\ (fresh (s_p (x_sys x)) = true -> ole (m_last_ok_start m) jw)
     /\ (forall w, m_cur m = Some w ->
           incl (pw_popped w) (m_popped m) /\
           (nf (s_p (x_sys x)) = false -> ole (m_last_ok_start m) (pw_cover_before w)))
}.

(** at a quiescent state the put loop is never blocked behind a release loop that is not writing *)
Lemma p_acquire_blocked x : good (x_sys x) -> quiet cfg (x_sys x) ->
  Z.eqb (tag (enc_p x)) 5 && negb (is_write (enc_r x)) = false.
Proof.
  intros G [Qr Qp]. destruct (Z.eqb_spec (tag (enc_p x)) 5) as [E5|N5]; [|reflexivity]. cbn [andb].
  pose proof (good_inv1 _ _ _ _ _ _ G) as II.
  destruct (reachable_inv_all _ _ _ _ _ _ (proj1 G)) as [_ [_ [[I3a I3b] _]]].
  unfold enc_p in E5. destruct (s_p (x_sys x)) as [| | | | | | | |k w|] eqn:Ep; try discriminate E5.
  destruct w; try discriminate E5.
  (* PW k WAcquire, not enabled: the lock is held by the release loop *)
  unfold p_internal, p_in_io, p_in_timer, enabled in Qp. cbn [step] in Qp. unfold pstep in Qp. rewrite Ep in Qp.
  cbn in Qp. destruct (s_store (x_sys x)) as [t|] eqn:Est; [|discriminate Qp].
  unfold r_holds, p_holds in I3a. rewrite Ep in I3a. cbn in I3a.
  assert (Hrh : r_holds (x_sys x) = true).
  { revert I3a. unfold r_holds. try rewrite Est. destruct (s_r (x_sys x)) as [| |w]; cbn; try (intros H; discriminate H).
    destruct (holds w); [reflexivity|intros H; discriminate H]. }
  destruct (holder_enabled_r cfg (x_sys x) II Hrh) as [H|H]; [|congruence].
  unfold r_in_io in H. unfold enc_r. destruct (s_r (x_sys x)) as [| |[]]; try discriminate. reflexivity.
Qed.

Lemma quiet_idle_synced x c : good (x_sys x) -> quiet cfg (x_sys x) -> s_p (x_sys x) = PIdle c ->
  synchronizedEpochs (s_pbl (x_sys x)) = length (epochSeeds (s_pbl (x_sys x))).
Proof.
  intros G [_ Qp] Ep. pose proof (good_inv1 _ _ _ _ _ _ G) as II.
  destruct (reachable_inv_all _ _ _ _ _ _ (proj1 G)) as [_ [[_ I2] _]].
  unfold p_internal, p_in_io, p_in_timer, enabled in Qp. cbn [step] in Qp. unfold pstep in Qp. rewrite Ep in Qp. cbn in Qp.
  destruct (Nat.eq_dec (synchronizedEpochs (s_pbl (x_sys x))) (length (epochSeeds (s_pbl (x_sys x))))) as [E|E]; [exact E|exfalso].
  pose proof (i_sync1 _ (proj1 II)). pose proof (i_sync2 _ (proj1 II)).
  assert (Hcl : put_chan_closed (s_pbl (x_sys x)) = true) by (apply inv_wakeup_put; [exact (proj1 II)|lia]).
  assert (is_closed (heap (s_pbl (x_sys x))) c = true) as Hc.
  { destruct (I2 c (or_intror Ep)) as [->|H']; [exact Hcl|exact H']. }
  rewrite Hc in Qp. destruct (s_cancel (x_sys x) && _); discriminate.
Qed.

Lemma rel5_step rem m x op rw x1 res x2 :
  rel2 (S rem) m x -> rel5 m x -> tri cfg op x x1 res -> quiesce cfg 64 rw x1 = Ok x2 ->
  rel2 rem (mon_step (c_interval cfg) m op (enc_obs res x2)) x2 ->
  rel5 (mon_step (c_interval cfg) m op (enc_obs res x2)) x2
  /\ ms_v5 m op (enc_obs res x2) (ms_popped m op (enc_obs res x2)) = [].
Proof.
  intros R2 [X [jw [A5 [E5 [B5 C5]]]]] T Hq R2'.
  pose proof R2 as [R [gs0 C0] [S1 S2] Hnwr0 [Etot0 [_ W0]]].
  set (o := enc_obs res x2) in *. set (m' := mon_step (c_interval cfg) m op o) in *.
  pose proof (r1_good _ _ _ _ _ _ _ R) as G. pose proof (tri_good _ _ _ _ _ _ _ _ _ G T) as G1.
  pose proof R2' as [R' [gs2 C2] [S1' S2'] Hnwr2 _].
  pose proof (r1_good _ _ _ _ _ _ _ R') as G2. pose proof (r1_quiet _ _ _ _ _ _ _ R') as Q2.
  pose proof (tri_pX _ _ _ _ _ _ _ _ _ G X T) as X1. pose proof (quiesce_pX _ _ _ _ _ _ _ _ _ G1 X1 Hq) as X2.
  destruct (op_class _ _ _ _ _ m x op x1 res x2 R T) as [Hnw1 [K1 K2]]. fold o in K1, K2.
  destruct (class_traj _ _ _ _ _ _ _ _ _ G1 Hq) as [J1 J2 J3].
  (* the monitor after the operation *)
  assert (Em : m_step m' = S (m_step m) /\ m_acks m' = ms_acks m op o /\ m_popped m' = ms_popped m op o
               /\ m_written m' = ms_written m op o /\ m_last_ok_start m' = ms_last_ok m op o
               /\ m_cur m' = snd (ms_nc m op o (ms_popped m op o)) /\ m_nwr m' = fst (ms_nc m op o (ms_popped m op o))).
  { unfold m'. rewrite mon_step_eq. cbn [m_step m_acks m_popped m_written m_last_ok_start m_cur m_nwr]. splits; reflexivity. }
  destruct Em as [Em1 [Em2 [Em3 [Em4 [Em5 [Em6 Em7]]]]]].
  assert (Hacks_sub : forall k, In k (ms_acks m op o) -> In k (m_acks m) \/ k_step k = m_step m).
  { intros k. unfold ms_acks. destruct (_ && _)%bool; [|auto]. destruct (nth_error (m_upl m) _) as [[lo en]|]; [|auto].
    intros Hi. apply in_app_or in Hi. destruct Hi as [Hi|[<-|[]]]; auto. }
  assert (Hpop_sub : forall z, zmem z (ms_popped m op o) = false -> zmem z (m_popped m) = false).
  { intros z Hz. destruct (zmem z (m_popped m)) eqn:E; [|reflexivity]. apply zmem_in in E.
    assert (In z (ms_popped m op o)) as Hi; [|apply zmem_in in Hi; congruence].
    unfold ms_popped, ms_bp. destruct (_ && _)%bool.
    - destruct (m_blocks m); cbn [snd]; [exact E|apply in_or_app; left; exact E].
    - destruct (_ && _)%bool; exact E. }
  assert (Hwok : ms_write_ok op o = true ->
            exists w, m_cur m = Some w /\ Forall (okw w) (m_acks m) /\ ms_acks m op o = m_acks m
                      /\ ms_popped m op o = m_popped m /\ ms_last_ok m op o = m_last_ok_start m
                      /\ (forall j, pw_cover_before w = Some j -> j <= m_step m)).
  { intros Hw. unfold ms_write_ok, ms_write_done, ms_hit in Hw. subst o. rewrite obs_nth0 in Hw.
    apply andb_true_iff in Hw. destruct Hw as [Hw _]. apply andb_true_iff in Hw. destruct Hw as [Hc6 Hhit].
    apply Z.eqb_eq in Hc6.
    destruct T as [[-> Hn]|[[e [He _]]|[t [a [[Hres [Hat Hth]] Ht]]]]].
    - destruct Hn as [Hn1 _]. rewrite Hn1 in Hhit by auto. discriminate.
    - exfalso. destruct (env_ok_code _ _ _ _ He) as [_ [_ [_ [_ [_ [N6 _]]]]]]. contradiction.
    - destruct Hth as [[E _]|[[_ [Hwr _]]|[E _]]]; try lia.
      assert (exists st, written_state (x_sys x) t = Some st) as [st Hws].
      { destruct (writer_cases _ _ Hwr) as [[-> [st Er]]|[-> [k [st Ep]]]]; cbn [written_state]; rewrite ?Er, ?Ep; eauto. }
      destruct (W0 t st Hws) as [j [po [E0 [H1 [H2 [_ [_ H5]]]]]]].
      exists (mkPendw (enc_st st) j po). splits; auto.
      + apply acks_same. left. lia.
      + unfold ms_popped. rewrite bp_same; [reflexivity|left; lia|left; lia].
      + unfold ms_last_ok, ms_sync_ok, ms_sync_done. rewrite Hc6. reflexivity. }
  assert (Hnwok : ms_write_ok op o = false -> ms_written m op o = m_written m).
  { intros Hw. unfold ms_written. rewrite Hw. reflexivity. }
  (* the new ghost: the cover-before of the last completed write *)
  set (jw' := if ms_write_ok op o then match m_cur m with Some w => pw_cover_before w | None => jw end else jw).
  assert (A5' : forall k, In k (m_acks m') -> zmem (k_loc k) (m_popped m') = false -> should jw' k = true ->
                          exists c, m_written m' = Some c /\ covers c k = true).
  { rewrite Em2, Em3, Em4. intros k Hk Hz Hs. unfold jw' in Hs.
    destruct (ms_write_ok op o) eqn:Ewok.
    - destruct (Hwok eq_refl) as [w [Hcur [Hokw [Ea [Epo [_ _]]]]]]. rewrite Hcur in Hs. rewrite Ea in Hk. rewrite Epo in Hz.
      unfold ms_written. rewrite Ewok, Hcur. eexists. split; [reflexivity|].
      rewrite Forall_forall in Hokw. destruct (Hokw k Hk) as [Hp|[Hc _]].
      + exfalso. destruct (C5 w Hcur) as [Hincl _]. apply zmem_in in Hp. apply Hincl in Hp. apply zmem_in in Hp. congruence.
      + apply Hc. exact Hs.
    - rewrite (Hnwok eq_refl). destruct (Hacks_sub k Hk) as [Hold|Hnew].
      + apply A5; auto.
      + exfalso. unfold should in Hs. destruct jw as [j|]; [|discriminate]. specialize (E5 j eq_refl).
        apply Nat.ltb_lt in Hs. lia. }
  assert (E5' : forall j, jw' = Some j -> j <= m_step m').
  { rewrite Em1. unfold jw'. intros j Hj. destruct (ms_write_ok op o) eqn:Ewok.
    - destruct (Hwok eq_refl) as [w [Hcur [_ [_ [_ [_ Hb]]]]]]. rewrite Hcur in Hj. specialize (Hb j Hj). lia.
    - specialize (E5 j Hj). lia. }
  assert (Hlo : ms_sync_ok op o = false -> ms_last_ok m op o = m_last_ok_start m).
  { intros H. unfold ms_last_ok. rewrite H. reflexivity. }
  assert (B5' : fresh (s_p (x_sys x2)) = true -> ole (m_last_ok_start m') jw').
  { rewrite Em5. intros Hf. specialize (J1 Hf). unfold jw'. destruct (K1 J1) as [[Hf0 [Hso Hwd]]|[Hp0 Hwo]].
    - rewrite (Hlo Hso). destruct (ms_write_ok op o) eqn:Ewok; [|apply B5; exact Hf0].
      destruct (Hwok eq_refl) as [w [Hcur _]]. rewrite Hcur. destruct (C5 w Hcur) as [_ Hc]. apply Hc.
      unfold fresh in Hf0. apply andb_true_iff in Hf0. destruct Hf0 as [Hf0 _]. destruct (nf (s_p (x_sys x))); [discriminate|reflexivity].
    - rewrite Hwo. destruct (Hwok Hwo) as [w [Hcur [_ [_ [_ [Hl _]]]]]]. rewrite Hcur, Hl. destruct (C5 w Hcur) as [_ Hc]. apply Hc.
      unfold pwr in Hp0. destruct (s_p (x_sys x)) as [| | | | | | | |k []|]; try discriminate. reflexivity. }
  assert (C5' : forall w, m_cur m' = Some w ->
            incl (pw_popped w) (m_popped m') /\ (nf (s_p (x_sys x2)) = false -> ole (m_last_ok_start m') (pw_cover_before w))).
  { rewrite Em6, Em3, Em5. intros w Hw.
    destruct (cur_cases m op o (ms_popped m op o)) as [[c [Hc Hlt]]|[Hc Heq]].
    - rewrite Hc in Hw. inversion Hw; subst w. cbn [pw_popped pw_cover_before]. split; [apply incl_refl|intros _; apply ole_refl].
    - rewrite Hc in Hw. unfold ms_cur0 in Hw. destruct (ms_write_done op o) eqn:Ewd; [discriminate|].
      destruct (C5 w Hw) as [Hincl Hc5]. split.
      + intros z Hz. apply Hincl in Hz. destruct (zmem z (ms_popped m op o)) eqn:E; [apply zmem_in; exact E|].
        apply Hpop_sub in E. apply zmem_in in Hz. congruence.
      + intros Hnf.
        assert (Hnw2 : x_nwr x2 = x_nwr x) by (rewrite <- Hnwr2, Em7, Heq; exact Hnwr0).
        assert (Hnf0 : nf (s_p (x_sys x)) = false /\ ms_sync_ok op o = false).
        { destruct (pwr (s_p (x_sys x2))) eqn:Ep2.
          - destruct (J2 eq_refl) as [E|E]; [|lia]. rewrite E in Ep2. destruct (K2 Ep2) as [E0 [Hso _]].
            split; [|exact Hso]. rewrite <- E0. unfold pwr in Ep2. destruct (s_p (x_sys x1)) as [| | | | | | | |k []|]; try discriminate. reflexivity.
          - assert (fresh (s_p (x_sys x2)) = true) as Hf by (unfold fresh; rewrite Hnf, Ep2; reflexivity).
            destruct (K1 (J1 Hf)) as [[Hf0 [Hso _]]|[_ Hwo]].
            + split; [|exact Hso]. unfold fresh in Hf0. destruct (nf (s_p (x_sys x))); [discriminate|reflexivity].
            + exfalso. unfold ms_write_ok in Hwo. rewrite Ewd in Hwo. discriminate. }
        destruct Hnf0 as [Hnf0 Hso]. rewrite (Hlo Hso). apply Hc5. exact Hnf0. }
  split; [constructor; [exact X2|exists jw'; auto]|].
  (* clause 5 itself *)
  unfold ms_v5. destruct (ms_p_waits o) eqn:Epw; [|rewrite andb_false_r; reflexivity]. rewrite andb_true_r.
  assert (ms_uncovered m op o (ms_popped m op o) = false) as ->; [|reflexivity].
  unfold ms_p_waits in Epw. subst o. rewrite obs_nth1, obs_nth2 in Epw.
  rewrite (p_acquire_blocked x2 G2 Q2), orb_false_r in Epw.
  assert (Hsyn : synchronizedEpochs (s_pbl (x_sys x2)) = length (epochSeeds (s_pbl (x_sys x2))) /\ fresh (s_p (x_sys x2)) = true).
  { unfold enc_p in Epw. destruct (s_p (x_sys x2)) as [| |c| | | | | |k w|] eqn:Ep2; try discriminate Epw.
    - split; [eapply quiet_idle_synced; eauto|reflexivity].
    - destruct w; discriminate Epw.
    - split; [|reflexivity]. unfold pX in X2. rewrite Ep2 in X2. exact (proj2 X2). }
  destruct Hsyn as [Hsyn Hfr].
  unfold ms_uncovered. apply not_true_is_false. intros Hex. apply existsb_exists in Hex. destruct Hex as [k [Hk Hun]].
  apply andb_true_iff in Hun. destruct Hun as [Hz Hnc]. apply negb_true_iff in Hz.
  fold (enc_obs res x2) in *. set (o := enc_obs res x2) in *.
  unfold covx in C2. rewrite Em2, Em3, Em5 in C2. destruct C2 as [_ C22 _ _ _ _ C27 C28].
  destruct (F2_in_l _ _ _ _ (F2_conj _ _ _ _ C27 C28) Hk) as [g [Hok [Hh [_ Hlv]]]].
  destruct (Nat.lt_ge_cases (o_block (g_o g)) (totalReleased (s_pbl (x_sys x2)))) as [Hrel|Hge].
  - rewrite <- C22 in Hrel. rewrite nth_error_app1 in Hh by exact Hrel. apply nth_error_In in Hh. apply zmem_in in Hh. congruence.
  - pose proof (all_lv2 _ _ _ Hok Hge Hsyn) as H2. rewrite Hlv in H2. apply lvl2_iff in H2.
    pose proof (should_ole _ _ _ (B5' Hfr) ltac:(rewrite Em5; exact H2)) as Hs.
    destruct (A5' k ltac:(rewrite Em2; exact Hk) ltac:(rewrite Em3; exact Hz) Hs) as [c [Hc Hcov]].
    rewrite Em4 in Hc. rewrite Hc, Hcov in Hnc. discriminate.
Qed.

End C5.
