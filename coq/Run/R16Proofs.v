(** C16: the monitor clauses 8 (Done exactly once at every level), 9 (every
    underlying reader closed exactly once) and 10 (the stack offering rule)
    never fire on the model's own observation
    ([clauses_8_9_silent_on_model], [clause_10_silent_on_model]): an alarm of
    these clauses on the unchanged tree can only come from an implementation
    observation that differs from the model's. *)
From Coq Require Import List ZArith NArith Bool Lia.
From BBS Require Import Common.Sx Buffer.ErrHandler Buffer.ErrHandlerProofs Buffer.ClosedOnceProofs
  Buffer.ErrHandlerStackProofs Run.R09 Run.R16.
Import ListNotations.
Open Scope Z_scope.

Lemma enc_dones_count log : enc_dones log = A (Z.of_nat (count_done log)).
Proof.
  unfold enc_dones, of_nat, count_done. do 3 f_equal. apply filter_ext. intros [e|]; reflexivity.
Qed.

Theorem clauses_8_9_silent_on_model : forall inp,
  clause8 (q_anss (dec_case16 inp)) (obs_dones (run16 inp)) = true /\
  clause9 (obs_closes (run16 inp)) = true.
Proof.
  intros inp. unfold run16. set (c := dec_case16 inp).
  destruct (run_stack_good (lookup (q_tbl c)) (q_cfg c) (stack_fuel (q_b0 c) (q_anss c)) (q_b0 c) (q_anss c) (q_meth c))
    as (Hlen & Hdone & Hcl).
  set (o := run_stack _ _ _ _ _ _) in *.
  unfold obs_dones, obs_closes, enc_out16s, sx_nth, sx_list, sx_Zs. cbn [nth].
  split.
  - unfold clause8. cbn [sx_list]. rewrite !map_map, map_length, Hlen, Nat.eqb_refl, andb_true_r.
    apply forallb_forall. intros d Hin. apply in_map_iff in Hin. destruct Hin as (log & <- & Hin).
    rewrite enc_dones_count. cbn [sx_Z]. rewrite Forall_forall in Hdone. rewrite (Hdone _ Hin). reflexivity.
  - unfold clause9, of_nats. cbn [sx_list]. rewrite map_map.
    apply forallb_forall. intros d Hin. apply in_map_iff in Hin. destruct Hin as (n & <- & Hin).
    unfold all_one in Hcl. rewrite Forall_forall in Hcl. rewrite (Hcl _ Hin). reflexivity.
Qed.

From BBS Require Import Buffer.ValidateProofs Buffer.StackRuleProofs.

Lemma skipn_cons_nth {A} : forall n (l : list A) x r,
  skipn n l = x :: r -> nth_error l n = Some x /\ skipn (S n) l = r.
Proof.
  induction n as [|n IH]; intros l x r Hs.
  - cbn in Hs. subst l. split; reflexivity.
  - destruct l as [|y l]; [discriminate|]. cbn [skipn] in Hs. destruct (IH _ _ _ Hs) as [H1 H2]. split; assumption.
Qed.
Lemma skipn_nil_len {A} n (l : list A) : skipn n l = [] -> (length l <= n)%nat.
Proof. intros Hs. pose proof (skipn_length n l) as Hl. rewrite Hs in Hl. cbn in Hl. lia. Qed.
Lemma firstn_S_nth {A} : forall n (l : list A) x, nth_error l n = Some x -> firstn (S n) l = firstn n l ++ [x].
Proof.
  induction n as [|n IH]; intros l x Hn; destruct l as [|y l]; try discriminate.
  - cbn in Hn. inv Hn. reflexivity.
  - cbn [nth_error] in Hn. cbn [firstn app]. f_equal. apply IH. exact Hn.
Qed.
Lemma snoc_cases {A} (x : list A) : x = [] \/ exists x' y, x = x' ++ [y].
Proof. destruct x as [|a x] using rev_ind; [left; reflexivity|right; exists x, a; reflexivity]. Qed.

Definition script_answer (ans : list answer) (i : nat) : answer :=
  match nth_error ans i with Some x => x | None => Fail 10 end.

Lemma on_error_script h e ans n :
  h_answers h = skipn n ans ->
  fst (on_error h e) = script_answer ans n /\ h_answers (snd (on_error h e)) = skipn (S n) ans /\
  (forall b, fst (on_error h e) = Replace b -> nth_error ans n = Some (Replace b)).
Proof.
  intros Ha. unfold on_error, script_answer. destruct (h_answers h) as [|a r] eqn:E; cbn [fst snd h_answers].
  - symmetry in Ha. pose proof (skipn_nil_len _ _ Ha) as Hl.
    assert (Hn : nth_error ans n = None) by (apply nth_error_None; exact Hl).
    rewrite Hn. rsplit; auto.
    + symmetry. apply skipn_all2. lia.
    + intros b Hb. discriminate.
  - symmetry in Ha. destruct (skipn_cons_nth _ _ _ _ Ha) as [H1 H2]. rewrite H1. rsplit; auto.
    intros b ->. reflexivity.
Qed.

Lemma hrun_script ans h tr : hrun ans h tr ->
  h_answers h = skipn (length tr) ans /\
  (forall l e a, tr = l ++ [(e, a)] -> a = script_answer ans (length l)) /\
  (forall l x, tr = l ++ x -> quietT l -> firstn (length l) ans = map snd l).
Proof.
  induction 1 as [|h tr e _ (IH1 & IH2 & IH3)|h tr _ IH].
  - rsplit; [reflexivity| |].
    + intros l e a Hx. destruct l; discriminate.
    + intros l x Hx _. symmetry in Hx. apply app_eq_nil in Hx. destruct Hx as [-> _]. reflexivity.
  - destruct (on_error_script h e ans (length tr) IH1) as (Hf & Hs & Hrep).
    rewrite app_length. cbn [length]. rewrite Nat.add_1_r. rsplit; [exact Hs| |].
    + intros l e0 a Hx. apply app_inj_tail in Hx. destruct Hx as [<- Hx]. inv Hx. exact Hf.
    + intros l x Hx Hq. destruct (snoc_cases x) as [->|(x' & y & ->)].
      * rewrite app_nil_r in Hx. subst l. apply Forall_app in Hq. destruct Hq as [Hq1 Hq2].
        inversion Hq2 as [|p ps [b Hb] _]; subst. cbn [snd] in Hb.
        rewrite app_length. cbn [length]. rewrite Nat.add_1_r.
        rewrite (firstn_S_nth _ _ _ (Hrep _ Hb)), (IH3 tr [] (eq_sym (app_nil_r _)) Hq1), map_app. cbn [map snd].
        rewrite Hb. reflexivity.
      * rewrite app_assoc in Hx. apply app_inj_tail in Hx. destruct Hx as [Hx _]. eapply IH3; eassumption.
  - exact IH.
Qed.

Lemma returned_last ans h l e a : hrun ans h (l ++ [(e, a)]) ->
  returned ans (length (l ++ [(e, a)])) = match a with Fail c => Some c | Replace _ => None end.
Proof.
  intros Hr. destruct (hrun_script _ _ _ Hr) as (_ & H2 & _).
  rewrite app_length. cbn [length]. rewrite Nat.add_1_r. cbn [returned].
  pose proof (H2 _ _ _ eq_refl) as Hn. unfold script_answer in Hn.
  destruct (nth_error ans (length l)) as [x|]; subst a; reflexivity.
Qed.
Lemma returned_failed ans h tr c : hrun ans h tr -> failedT c tr -> returned ans (length tr) = Some c.
Proof. intros Hr (l & e & -> & _). exact (returned_last _ _ _ _ _ Hr). Qed.
Lemma returned_quiet ans h tr : hrun ans h tr -> quietT tr -> returned ans (length tr) = None.
Proof.
  intros Hr Hq. destruct (snoc_cases tr) as [->|(l & [e a] & ->)]; [reflexivity|].
  apply Forall_app in Hq. destruct Hq as [_ Hq]. inversion Hq as [|p ps [b Hb] _]; subst. cbn [snd] in Hb. subst a.
  exact (returned_last _ _ _ _ _ Hr).
Qed.

Lemma existsb_fail_reps l : Forall isrep l ->
  existsb (fun a => match a with Fail _ => true | Replace _ => false end) (map snd l) = false.
Proof. induction 1 as [|p l [b Hb] _ IH]; cbn; [reflexivity|]. rewrite Hb, IH. reflexivity. Qed.

Lemma not_asked_again g : gvalid g -> asked_after_error (g_ans g) (length (g_tr g)) = false.
Proof.
  intros [Hr Hst]. destruct (hrun_script _ _ _ Hr) as (_ & _ & H3). unfold asked_after_error.
  destruct (snoc_cases (g_tr g)) as [E|(l & y & E)]; rewrite E in *; [reflexivity|].
  assert (Hq : quietT l).
  { destruct Hst as [Hq|(c & l' & e & Ht & Hl)]; [apply Forall_app in Hq; exact (proj1 Hq)|].
    apply app_inj_tail in Ht. destruct Ht as [-> _]. exact Hl. }
  rewrite app_length, Nat.add_1_r. cbn [Nat.pred].
  pose proof (H3 _ _ eq_refl Hq) as Hf. rewrite Hf, (existsb_fail_reps _ Hq). cbn [orb].
  apply Nat.ltb_ge. pose proof (firstn_length (length l) (g_ans g)) as Hl. rewrite Hf, map_length in Hl. lia.
Qed.

Definition offd_of (g : ghost) : list Z := map code_of (map fst (g_tr g)).

Lemma stack_rule_ghosts : forall G prev, Forall gvalid G -> chain prev (trs G) ->
  stack_rule (scr G) (map offd_of G) = true.
Proof.
  induction G as [|g1 G IH]; intros prev Hv Hc; [reflexivity|].
  destruct G as [|g2 G']; [reflexivity|].
  inversion Hv as [|x l [Hr1 Hs1] Hv']; subst.
  cbn [trs map chain] in Hc. destruct Hc as (_ & Hadj & Hc').
  cbn [scr map stack_rule]. fold (scr G'). 
  assert (Hlen : length (offd_of g1) = length (g_tr g1)) by (unfold offd_of; rewrite !map_length; reflexivity).
  rewrite Hlen. apply andb_true_intro. split.
  - destruct Hadj as [(Hq & Ht2)|(c & Hf & (a & rest & Ht2))].
    + rewrite (returned_quiet _ _ _ Hr1 Hq). unfold offd_of. rewrite Ht2. reflexivity.
    + rewrite (returned_failed _ _ _ _ Hr1 Hf). unfold offd_of. rewrite Ht2. cbn. apply Z.eqb_refl.
  - apply (IH (Some (g_tr g1)) Hv'). cbn [trs map chain]. split; [exact Hadj|exact Hc'].
Qed.

Lemma forall2b_ghosts : forall G, Forall gvalid G ->
  forall2b (fun ans o => negb (asked_after_error ans (length o))) (scr G) (map offd_of G) = true.
Proof.
  induction 1 as [|g G Hg _ IH]; [reflexivity|]. cbn [scr map forall2b]. fold (scr G). rewrite IH, andb_true_r.
  unfold offd_of. rewrite !map_length, (not_asked_again _ Hg). reflexivity.
Qed.

Lemma enc_onerrors_codes log : sx_Zs (enc_onerrors log) = map code_of (onerrors log).
Proof.
  unfold enc_onerrors, onerrors, sx_Zs. cbn [sx_list]. induction log as [|[e|] log IH]; cbn [flat_map map app]; [reflexivity| |exact IH].
  rewrite IH. f_equal.
Qed.

Theorem clause_10_silent_on_model : forall inp,
  clause10 (q_anss (dec_case16 inp)) (obs_offered (run16 inp)) = true.
Proof.
  intros inp. unfold run16. set (c := dec_case16 inp).
  destruct (run_stack_ruled (lookup (q_tbl c)) (q_cfg c) (stack_fuel (q_b0 c) (q_anss c)) (q_b0 c) (q_anss c) (q_meth c))
    as (G & Hscr & Hlogs & Hv & Hch).
  set (o := run_stack _ _ _ _ _ _) in *.
  assert (Hoff : obs_offered (enc_out16s (q_report c) o) = map offd_of G).
  { unfold obs_offered, enc_out16s, sx_nth. cbn [sx_list nth]. rewrite <- Hlogs, !map_map.
    apply map_ext_in. intros g Hin. rewrite enc_onerrors_codes. unfold offd_of.
    rewrite Forall_forall in Hv. destruct (Hv _ Hin) as [Hr _]. rewrite (hrun_log _ _ _ Hr). reflexivity. }
  rewrite Hoff, <- Hscr. unfold clause10.
  rewrite (stack_rule_ghosts G None Hv Hch), (forall2b_ghosts G Hv). unfold scr. rewrite !map_length, Nat.eqb_refl.
  reflexivity.
Qed.
