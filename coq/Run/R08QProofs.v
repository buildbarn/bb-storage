(** The C08Q monitor never fires on the model: for every configuration with
    0 <= old, 0 <= current, 1 <= new and EVERY schedule,
    [mon08Q inp (run08Q inp) = []]. *)
From Coq Require Import List ZArith Bool Lia.
From BBS Require Import Common.Sx Store.Quarantine Store.QuarantineProofs Run.R08Q.
Import ListNotations.
Open Scope Z_scope.

Ltac rsplit := repeat match goal with |- _ /\ _ => split end.

Lemma vvec_length st n i : length (vvec st n i) = n.
Proof. revert i. induction n as [|n IH]; intro i; cbn [vvec length]; auto. Qed.

Lemma snap_length st : Z.of_nat (length (snap st)) = live st.
Proof. unfold snap, live. rewrite vvec_length. reflexivity. Qed.

Lemma scan_vvec st : Inv st -> is_raise (pcs st) = false ->
  forall n i, 0 <= i -> scan (rel st + i) (maxdet st) (vvec st n i) = [].
Proof.
  intros HI Hr. pose proof (i_lo _ HI) as Hlo. rewrite Hr in Hlo.
  pose proof (i_hi _ HI) as Hhi. pose proof (i_det _ HI) as Hd.
  induction n as [|n IH]; intros i Hi; cbn [vvec scan]; [reflexivity|].
  replace (rel st + i + 1) with (rel st + (i + 1)) by lia. rewrite IH by lia. rewrite app_nil_r.
  unfold hidden. destruct (tbr st <? rel st) eqn:E; [apply Z.ltb_lt in E; lia|].
  destruct (i <? tbr st - rel st) eqn:E2; cbn [negb].
  - apply Z.ltb_lt in E2. destruct (maxdet st <=? rel st + i) eqn:E3; [apply Z.leb_le in E3; lia|reflexivity].
  - apply Z.ltb_ge in E2. destruct (rel st + i <? maxdet st) eqn:E3; [apply Z.ltb_lt in E3; lia|reflexivity].
Qed.

Lemma scan_snap st : Inv st -> is_raise (pcs st) = false -> scan (rel st) (maxdet st) (snap st) = [].
Proof.
  intros HI Hr. unfold snap. replace (rel st) with (rel st + 0) at 1 by lia. apply scan_vvec; auto. lia.
Qed.

Definition simr (st : qst) (tg : list (option Z)) : Prop :=
  length tg = length (rdrs st)
  /\ forall r rd, nth_error (rdrs st) r = Some rd -> r_open rd = true ->
       nth_error tg r = Some (Some (r_tgt rd)).

Lemma upd_rdr_length l : forall n, length (upd_rdr l n) = length l.
Proof. induction l as [|x t IH]; intros [|n]; cbn [upd_rdr length]; auto. Qed.

Lemma simr_detect st tg r : simr st tg -> simr (detect st r) tg.
Proof.
  intros [Hl Hn]. unfold detect.
  destruct (nth_error (rdrs st) r) as [rd|]; [|split; auto].
  destruct (r_open rd); [|split; auto].
  destruct (r_bad rd); split; flds; rewrite ?upd_rdr_length; auto;
    intros r0 rd0 H Ho; apply Hn; auto; eapply nth_upd_rdr_open; eauto.
Qed.

Lemma raise_D_detect st tg r : simr st tg ->
  raise_D (maxdet st) tg r (fst (detect_obs st r)) = maxdet (detect st r).
Proof.
  intros [Hl Hn]. unfold raise_D, detect_obs, detect.
  destruct (nth_error (rdrs st) r) as [rd|] eqn:En; [|reflexivity].
  destruct (r_open rd) eqn:Eo; [|reflexivity].
  destruct (r_bad rd); cbn [fst]; flds; [|reflexivity].
  rewrite (Hn _ _ En Eo). reflexivity.
Qed.

Lemma detect_frame st r :
  pcs (detect st r) = pcs st /\ rel (detect st r) = rel st /\ blocks (detect st r) = blocks st
  /\ puts (detect st r) = puts st /\ pstart (detect st r) = pstart st
  /\ cur (detect st r) = cur st /\ new (detect st r) = new st.
Proof.
  unfold detect. destruct (nth_error (rdrs st) r) as [rd|]; [|rsplit; reflexivity].
  destruct (r_open rd); [|rsplit; reflexivity]. destruct (r_bad rd); flds; rsplit; reflexivity.
Qed.

(** [pend]: the writer list against the list when the Put() was entered. *)
Definition pend (st : qst) (base : list Z) : Prop :=
  match pcs st with
  | Idle => True
  | PDone code idx => puts st = if code =? 0 then base ++ [rel st + idx] else base
  | _ => puts st = base
  end.

Lemma fire_spec c tg base : forall rs st st' ds,
  Inv st -> Cap c st -> simr st tg -> pend st base -> fire st rs = (st', ds) ->
  Inv st' /\ Cap c st' /\ simr st' tg /\ pend st' base
  /\ pcs st' = pcs st /\ rel st' = rel st /\ blocks st' = blocks st /\ pstart st' = pstart st
  /\ upd_D (maxdet st) tg rs ds = maxdet st' /\ cur st' = cur st /\ new st' = new st.
Proof.
  induction rs as [|r t IH]; intros st st' ds HI HC Hs Hp H; cbn [fire] in H.
  - injection H as <- <-. rsplit; auto; apply Hs.
  - destruct (fire (detect st r) t) as [st1 os] eqn:Ef. injection H as <- <-.
    destruct (detect_frame st r) as (F1 & F2 & F3 & F4 & F5 & F6 & F7).
    assert (HC' : Cap c (detect st r)) by (apply cap_detect, HC).
    assert (Hp' : pend (detect st r) base).
    { unfold pend in *. rewrite F1, F2, F4. exact Hp. }
    specialize (IH _ _ _ (inv_detect st r HI) HC' (simr_detect st tg r Hs) Hp' Ef).
    destruct IH as (A1 & A2 & A3 & A4 & A5 & A6 & A7 & A8 & A9 & A10 & A11).
    rsplit; auto; try congruence; try apply A3.
    cbn [upd_D fst]. rewrite raise_D_detect by exact Hs. exact A9.
Qed.

Lemma put_step_frame c st : rdrs (put_step c st) = rdrs st /\ maxdet (put_step c st) = maxdet st
  /\ pstart (put_step c st) = pstart st.
Proof. destruct (put_step_cases c st); rsplit; reflexivity. Qed.

Lemma simr_put_step c st tg : simr st tg -> simr (put_step c st) tg.
Proof. unfold simr. destruct (put_step_frame c st) as (-> & _). auto. Qed.

Lemma pend_put_step c st base : pcs st <> Idle -> pend st base -> pend (put_step c st) base.
Proof.
  unfold pend. intros Hni. destruct (put_step_cases c st); flds; rewrite ?Epc; auto.
  - intros ->. destruct (Z.eqb_spec i 0); [lia|reflexivity].
  - intros ->. reflexivity.
Qed.

(** What a step at a block-list call does to the release counter. *)
Lemma call_step c st kind : wfq c -> Inv st -> Cap c st -> next_call c st = Some kind ->
  rel (put_step c st) = (if kind =? 0 then rel st + 1 else rel st)
  /\ is_raise (pcs st) = false
  /\ (kind = 0 -> maxdet st <= rel st -> cap c + 1 <= live st).
Proof.
  intros Hw HI HC. pose proof (i_pc _ HI) as Hp. pose proof (i_lo _ HI) as Hlo.
  pose proof (i_hi _ HI). pose proof (i_detlive _ HI) as Hdl. unfold tot, live in *.
  destruct (put_step_cases c st); try discriminate; intros [= <-]; rewrite Epc in Hp, Hlo |- *; flds;
    (split; [|split; [reflexivity|try discriminate]]); try reflexivity.
  (* the catch-up loop runs below the boundary, so something is listed and detected *)
  1-5: try rewrite Ebl in Hdl; cbn [length] in Hdl; lia.
  1-2: destruct (pop_has_blocks c st sz Hw HI HC Epc Ebl).
  intros _ _. exact (rotation_pop_over_capacity c st sz HI HC Epc).
Qed.

Lemma nocall_step c st : next_call c st = None -> rel (put_step c st) = rel st.
Proof. destruct (put_step_cases c st); try discriminate; reflexivity. Qed.

Lemma put_step_not_idle c st : pcs st <> Idle -> pcs (put_step c st) <> Idle.
Proof. destruct (put_step_cases c st); flds; rewrite ?Epc; auto; discriminate. Qed.

Lemma put_loop_halt fuel c st hooks : running (pcs st) = false -> put_loop fuel c st hooks = (st, []).
Proof. destruct fuel; cbn [put_loop]; destruct (pcs st); (reflexivity || discriminate). Qed.

Lemma put_loop_0 c st hooks : put_loop 0 c st hooks = (st, []).
Proof. cbn [put_loop]. destruct (pcs st); reflexivity. Qed.

Lemma put_loop_S f c st hooks : running (pcs st) = true ->
  put_loop (S f) c st hooks =
  match next_call c st with
  | Some kind =>
      let '(st1, ds) := fire st (hd [] hooks) in
      let '(st2, hs) := put_loop f c (put_step c st1) (tl hooks) in
      (st2, mk_hobs kind ds (snap st1) :: hs)
  | None => put_loop f c (put_step c st) hooks
  end.
Proof. cbn [put_loop]. destruct (pcs st); (reflexivity || discriminate). Qed.

Lemma put_loop_spec c tg base : wfq c -> forall fuel st hooks st' hs,
  Inv st -> Cap c st -> simr st tg -> pend st base -> pcs st <> Idle ->
  put_loop fuel c st hooks = (st', hs) ->
  mon_hooks c (rel st) (maxdet st) tg hooks hs = (rel st', maxdet st', [])
  /\ Inv st' /\ Cap c st' /\ simr st' tg /\ pend st' base /\ pcs st' <> Idle
  /\ pstart st' = pstart st.
Proof.
  intros Hw. induction fuel as [|f IH]; intros st hooks st' hs HI HC Hs Hp Hni H.
  - rewrite put_loop_0 in H. injection H as <- <-. cbn [mon_hooks]. rsplit; auto; apply Hs.
  - destruct (running (pcs st)) eqn:Hrun.
    2:{ rewrite put_loop_halt in H by exact Hrun. injection H as <- <-. cbn [mon_hooks]. rsplit; auto; apply Hs. }
    rewrite put_loop_S in H by exact Hrun. rename H into H'.
    destruct (next_call c st) as [kind|] eqn:Enc.
    + destruct (fire st (hd [] hooks)) as [st1 ds] eqn:Ef.
      destruct (put_loop f c (put_step c st1) (tl hooks)) as [st2 hs2] eqn:El.
      injection H' as <- <-.
      destruct (fire_spec c tg base _ _ _ _ HI HC Hs Hp Ef) as (A1 & A2 & A3 & A4 & A5 & A6 & A7 & A8 & A9 & A10 & A11).
      assert (Enc1 : next_call c st1 = Some kind).
      { unfold next_call in *. rewrite A5, A6, A10, A11. exact Enc. }
      destruct (call_step c st1 kind Hw A1 A2 Enc1) as (B1 & B2 & B3).
      assert (Hni1 : pcs st1 <> Idle) by congruence.
      specialize (IH _ _ _ _ (inv_put_step c st1 A1) (cap_put_step c st1 Hw A1 A2)
                    (simr_put_step c st1 tg A3) (pend_put_step c st1 base Hni1 A4)
                    (put_step_not_idle c st1 Hni1) El).
      destruct IH as (C1 & C2 & C3 & C4 & C5 & C6 & C7).
      destruct (put_step_frame c st1) as (F1 & F2 & F3).
      cbn [mon_hooks mk_hobs h_kind h_dets h_snap]. rewrite A9.
      rewrite <- A6. rewrite (scan_snap st1 A1 B2).
      replace (if kind =? 0 then rel st1 + 1 else rel st1) with (rel (put_step c st1)) by exact B1.
      rewrite <- F2. rewrite C1. rewrite F2.
      assert (E3 : (if (kind =? 0) && (maxdet st1 <=? rel st1)
                       && (Z.of_nat (length (snap st1)) <=? cap c) then [3] else []) = @nil Z).
      { destruct (kind =? 0) eqn:Ek; [|reflexivity]. apply Z.eqb_eq in Ek.
        destruct (maxdet st1 <=? rel st1) eqn:Em; [|reflexivity]. apply Z.leb_le in Em.
        specialize (B3 Ek Em). rewrite snap_length.
        destruct (live st1 <=? cap c) eqn:Ec; [apply Z.leb_le in Ec; lia|reflexivity]. }
      rewrite E3. cbn [app]. rsplit; auto; try apply C4. congruence.
    + pose proof (nocall_step c st Enc) as Hrel.
      destruct (put_step_frame c st) as (F1 & F2 & F3).
      specialize (IH _ _ _ _ (inv_put_step c st HI) (cap_put_step c st Hw HI HC)
                    (simr_put_step c st tg Hs) (pend_put_step c st base Hni Hp)
                    (put_step_not_idle c st Hni) H').
      rewrite Hrel, F2, F3 in IH. exact IH.
Qed.

Lemma simr_open st tg k bad : simr st tg ->
  simr (open st k bad) (tg ++ [if can_open st k then Some (rel st + k + 1) else None]).
Proof.
  intros [Hl Hn]. unfold open.
  destruct (can_open st k); split; flds; rewrite ?app_length, ?Hl; auto; intros r rd H Ho.
  - destruct (Nat.lt_ge_cases r (length (rdrs st))) as [Hlt|Hge].
    + rewrite nth_error_app1 in H by exact Hlt. rewrite nth_error_app1 by (rewrite Hl; exact Hlt). auto.
    + rewrite nth_error_app2 in H by exact Hge. rewrite nth_error_app2 by (rewrite Hl; exact Hge).
      rewrite Hl. destruct (r - length (rdrs st))%nat as [|m]; cbn [nth_error] in *.
      * injection H as <-. reflexivity.
      * destruct m; discriminate.
  - destruct (Nat.lt_ge_cases r (length (rdrs st))) as [Hlt|Hge].
    + rewrite nth_error_app1 in H by exact Hlt. rewrite nth_error_app1 by (rewrite Hl; exact Hlt). auto.
    + rewrite nth_error_app2 in H by exact Hge.
      destruct (r - length (rdrs st))%nat as [|m]; cbn [nth_error] in *.
      * injection H as <-. discriminate.
      * destruct m; discriminate.
Qed.

Lemma mon_ops_silent c : wfq c -> forall ops st tg,
  Inv st -> Cap c st -> simr st tg -> pcs st = Idle ->
  mon_ops c (rel st) (maxdet st) tg (puts st) ops (run_ops c st ops) = [].
Proof.
  intros Hw. induction ops as [|o ops IH]; intros st tg HI HC Hs Hidle; [reflexivity|].
  cbn [run_ops]. destruct o as [sz hooks|k bad|r|w|]; cbn [run_op].
  - (* Put *)
    destruct (put_loop (put_fuel c st) c (start st sz) hooks) as [st2 hs] eqn:El.
    assert (Est : pcs (start st sz) = PStart sz) by (unfold start; rewrite Hidle; reflexivity).
    assert (Hni : pcs (start st sz) <> Idle) by (rewrite Est; discriminate).
    assert (Hp : pend (start st sz) (puts st)).
    { unfold pend. rewrite Est. unfold start. rewrite Hidle. reflexivity. }
    assert (Hs1 : simr (start st sz) tg).
    { unfold simr, start in *. rewrite Hidle. flds. exact Hs. }
    assert (HC1 : Cap c (start st sz)) by (apply (cap_step c st (EStart sz)); assumption).
    destruct (put_loop_spec c tg (puts st) Hw _ _ _ _ _ (inv_start st sz HI) HC1 Hs1 Hp Hni El)
      as (C1 & C2 & C3 & C4 & C5 & C6 & C7).
    assert (R0 : rel (start st sz) = rel st /\ maxdet (start st sz) = maxdet st
                 /\ pstart (start st sz) = tbr st).
    { unfold start. rewrite Hidle. flds. auto. }
    destruct R0 as (R1 & R2 & R3). rewrite R1, R2 in C1.
    destruct (pcs st2) as [| | | | | | | | |code idx] eqn:Epc;
      try (cbn [mon_ops]; reflexivity).
    cbn [mon_ops]. destruct (code =? -1) eqn:Em1; [reflexivity|].
    rewrite C1. cbn [app].
    assert (E4 : (if (code =? 0) && (rel st2 <? maxdet st) then [4] else []) = @nil Z).
    { destruct (code =? 0) eqn:E0; [|reflexivity]. apply Z.eqb_eq in E0.
      pose proof (i_pc _ C2) as Hpc. rewrite Epc in Hpc. specialize (Hpc E0).
      pose proof (i_det _ HI). rewrite C7, R3 in Hpc.
      destruct (rel st2 <? maxdet st) eqn:E; [apply Z.ltb_lt in E; lia|reflexivity]. }
    rewrite E4. cbn [app].
    assert (Hfin : pcs (finish st2) = Idle /\ rel (finish st2) = rel st2
                   /\ maxdet (finish st2) = maxdet st2 /\ puts (finish st2) = puts st2).
    { unfold finish. rewrite Epc. flds. auto. }
    destruct Hfin as (G1 & G2 & G3 & G4).
    pose proof (inv_finish st2 C2) as HIf.
    rewrite <- G2, <- G3. rewrite scan_snap by (auto; rewrite G1; reflexivity). cbn [app].
    assert (Hmp : (if code =? 0 then puts st ++ [rel (finish st2) + idx] else puts st) = puts (finish st2)).
    { rewrite G4, G2. unfold pend in C5. rewrite Epc in C5. symmetry. exact C5. }
    rewrite Hmp. apply IH; auto.
    + apply (cap_step c st2 EEnd); assumption.
    + unfold simr, finish in *. rewrite Epc. flds. exact C4.
  - (* Open *)
    cbn [mon_ops].
    assert (F : rel (open st k bad) = rel st /\ maxdet (open st k bad) = maxdet st
                /\ puts (open st k bad) = puts st /\ pcs (open st k bad) = pcs st).
    { unfold open. destruct (can_open st k); flds; auto. }
    destruct F as (F1 & F2 & F3 & F4).
    pose proof (inv_open st k bad HI) as HI1.
    assert (Hg : scan (rel (open st k bad)) (maxdet (open st k bad)) (snap (open st k bad))
                 ++ mon_ops c (rel (open st k bad)) (maxdet (open st k bad))
                      (tg ++ [if can_open st k then Some (rel st + k + 1) else None])
                      (puts (open st k bad)) ops (run_ops c (open st k bad) ops) = []).
    { rewrite scan_snap by (auto; rewrite F4, Hidle; reflexivity). cbn [app].
      apply IH; auto.
      - apply (cap_step c st (EOpen k bad)); assumption.
      - apply simr_open, Hs.
      - congruence. }
    rewrite F1, F2, F3 in Hg. exact Hg.
  - (* Detect *)
    cbn [mon_ops]. rewrite raise_D_detect by exact Hs.
    destruct (detect_frame st r) as (F1 & F2 & F3 & F4 & F5 & F6 & F7).
    pose proof (inv_detect st r HI) as HI1.
    rewrite <- F2. rewrite scan_snap by (auto; rewrite F1, Hidle; reflexivity). cbn [app].
    rewrite <- F4. apply IH; auto.
    + apply (cap_step c st (EDetect r)); assumption.
    + apply simr_detect, Hs.
    + congruence.
  - (* Fin *)
    cbn [mon_ops]. rewrite scan_snap by (auto; rewrite Hidle; reflexivity). cbn [app].
    rewrite IH by auto. rewrite app_nil_r.
    unfold fin_obs. destruct (nth_error (puts st) w) as [a|]; [|reflexivity].
    pose proof (i_hi _ HI). pose proof (i_det _ HI). pose proof (i_lo _ HI) as Hlo.
    rewrite Hidle in Hlo. flds.
    destruct (a <? tbr st) eqn:Ea; cbn [fst].
    + apply Z.ltb_lt in Ea. rewrite andb_false_r. cbn [app].
      destruct (maxdet st <=? a) eqn:E1; [|reflexivity]. apply Z.leb_le in E1.
      destruct (rel st <=? a) eqn:E2; [|reflexivity]. apply Z.leb_le in E2. lia.
    + apply Z.ltb_ge in Ea. cbn [negb Z.eqb]. rewrite andb_false_r, app_nil_r.
      destruct (a <? maxdet st) eqn:E1; [apply Z.ltb_lt in E1; lia|reflexivity].
  - reflexivity.
Qed.

Lemma dec_enc_snap v : dec_snap (enc_snap v) = v.
Proof.
  unfold dec_snap, enc_snap. cbn [sx_list]. rewrite map_map.
  induction v as [|b t IH]; [reflexivity|]. cbn [map]. rewrite IH. destruct b; reflexivity.
Qed.

Lemma dec_enc_hobs h : dec_hobs (enc_hobs h) = h.
Proof.
  destruct h as [k ds sn]. unfold dec_hobs, enc_hobs. cbn [h_kind h_dets h_snap sx_nth sx_list nth sx_Z].
  rewrite dec_enc_snap. f_equal.
  rewrite map_map. induction ds as [|[a b] t IH]; [reflexivity|]. cbn [map]. rewrite IH. reflexivity.
Qed.

Lemma dec_enc_oobs b : dec_oobs (enc_oobs b) = b.
Proof.
  destruct b as [code idx hs sn|ok sn|code delta sn|code idx sn|]; unfold dec_oobs, enc_oobs;
    cbn [sx_nth sx_list nth sx_Z]; rewrite ?dec_enc_snap; try reflexivity.
  - f_equal. rewrite map_map.
    induction hs as [|h t IH]; [reflexivity|]. cbn [map]. rewrite IH, dec_enc_hobs. reflexivity.
  - destruct ok; reflexivity.
Qed.

Lemma simr_init : simr init [].
Proof. split; [reflexivity|]. intros [|r] rd H; discriminate. Qed.


Lemma promote_stop K : forall n x n' x', promote n (fun y => y <? K) x = (n', x') ->
  (n' = O \/ K <= x') /\ x' <= Z.max x K.
Proof.
  induction n as [|n IH]; intros x n' x' H; cbn [promote] in H.
  - injection H as <- <-. lia.
  - destruct (Z.ltb_spec x K); [apply IH in H; lia|injection H as <- <-; lia].
Qed.

Lemma max0_sub a b : 0 <= b -> Z.max 0 (Z.max 0 a - b) = Z.max 0 (a - b).
Proof. lia. Qed.

Lemma ltb_sub_max a b : (if b <? a then a - b else 0) = Z.max 0 (a - b).
Proof. destruct (Z.ltb_spec b a); lia. Qed.

Lemma promote_left K n x n' x' : promote n (fun y => y <? K) x = (n', x') ->
  Z.of_nat n' = Z.max 0 (Z.of_nat n - Z.max 0 (K - x)) /\ x' = x + (Z.of_nat n - Z.of_nat n').
Proof. intros E. pose proof (promote_sum _ _ _ _ _ E). apply promote_stop in E. lia. Qed.

Lemma promote_ltb K n x :
  promote n (fun y => y <? K) x =
  (Z.to_nat (Z.of_nat n - Z.min (Z.of_nat n) (Z.max 0 (K - x))), x + Z.min (Z.of_nat n) (Z.max 0 (K - x))).
Proof.
  destruct (promote n (fun y => y <? K) x) as [n' x'] eqn:E. apply promote_left in E. f_equal; lia.
Qed.

Lemma promote_false : forall n x, promote n (fun _ => false) x = (n, x).
Proof. intros [|n] x; reflexivity. Qed.

(** With the blocks beyond the configured capacity old+current+new quarantined
    by the constructor, the monitor's initial boundary is the model's. *)
Lemma init_of_facts c : wfq c ->
  maxdet (init_of c) = mon_D0 c /\ rel (init_of c) = 0 /\ puts (init_of c) = [] /\ pcs (init_of c) = Idle
  /\ rdrs (init_of c) = [].
Proof.
  intros (Hq0 & Hq1 & Hq2). unfold init_of, mon_D0, cap.
  destruct (promote (Z.to_nat (q_init c)) (fun x => grow_new c 0 x) 0) as [n1 nw] eqn:E1.
  destruct (promote n1 (grow_cur c) 0) as [n2 cu] eqn:E2. flds. split; [|auto].
  rewrite ltb_sub_max. unfold grow_new, grow_cur in E1, E2. destruct (q_mut c).
  - apply promote_left in E1 as [E1 _], E2 as [E2 _]. rewrite E2, E1, !Z.sub_0_r.
    replace (Z.of_nat (Z.to_nat (q_init c))) with (Z.max 0 (q_init c)) by lia.
    rewrite (max0_sub (q_init c)), (max0_sub (q_init c - _)), max0_sub by lia. f_equal. lia.
  - apply promote_left in E1 as [E1 _]. rewrite promote_false in E2. injection E2 as <- <-.
    rewrite E1, !Z.sub_0_r.
    replace (Z.of_nat (Z.to_nat (q_init c))) with (Z.max 0 (q_init c)) by lia.
    rewrite (max0_sub (q_init c)), max0_sub by lia. f_equal. lia.
Qed.

Theorem mon08Q_silent_on_model_all inp :
  wfq (inp_cfg inp) -> mon08Q inp (run08Q inp) = [].
Proof.
  intros Hw. unfold mon08Q, run08Q. cbn [sx_list]. rewrite map_map.
  rewrite (map_ext _ (fun x => x) dec_enc_oobs), map_id.
  destruct (init_of_facts (inp_cfg inp) Hw) as (E1 & E2 & E3 & E4 & E5).
  pose proof (mon_ops_silent (inp_cfg inp) Hw (inp_ops inp) (init_of (inp_cfg inp)) []
                (inv_init_of _ (proj1 Hw)) (cap_init_of _)) as H.
  rewrite E1, E2, E3 in H. apply H; [|exact E4].
  split; [rewrite E5; reflexivity|]. rewrite E5. intros [|r] rd Hn; discriminate.
Qed.
