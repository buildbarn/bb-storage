(** C03, monitor versus model — two observations of the REAL code (harness/c03.go on the unchanged
    tree, inputs 3 and 5 of corpus/C03/directed.case), used as non-vacuity witnesses of the theorems of
    Run/R03MonObs.v in Props/C03.v:
      [exg_inp] / [exg_obs]: a graceful shutdown (one upload acknowledged, one refused after the final sync began),
             then a second incarnation that reads everything back;
      [exc_inp] / [exc_obs]: a process crash after a completed commit, three incarnations. *)
From BBS Require Import Common.Sx.
Open Scope Z_scope.
Definition exg_inp : sx := L [L [A 64; A 1; A 2; A 2; A 0; A 2; A 1; A 1; A 4; A 10; A 7; A 0; A 127]; L [L [A 0; A 
20; A 121; A 66; A 189; A 242; A 33; A 6; A 240; A 132; A 119; A 98; A 240; A 243; A 203; A 77; A 118; A 77; A 199; A 
7]; L [A 1; A 24; A 32; A 81; A 21; A 154; A 15; A 137; A 242; A 198; A 218; A 202; A 227; A 68; A 187; A 49; A 18; A 
69; A 253; A 111; A 132; A 223; A 154; A 215]; L [A 2; A 18; A 197; A 179; A 208; A 118; A 172; A 14; A 143; A 83; A 
167; A 53; A 108; A 136; A 145; A 63; A 32; A 246]; L [A 3; A 30; A 247; A 45; A 176; A 34; A 210; A 77; A 10; A 150; 
A 218; A 212; A 60; A 22; A 23; A 193; A 169; A 142; A 120; A 18; A 158; A 3; A 39; A 55; A 16; A 101; A 208; A 149; 
A 134; A 79]; L [A 4; A 12; A 21; A 173; A 160; A 184; A 70; A 193; A 192; A 235; A 197; A 52]; L [A 5; A 22; A 138; 
A 220; A 121; A 154; A 223; A 132; A 155; A 173; A 5; A 212; A 161; A 10; A 192; A 68; A 30; A 170; A 238; A 180; A 
180; A 142]]; L [L [A 0; L [L [A 1; A 0; A 0]; L [A 4; A 0]; L [A 13]; L [A 1; A 1; A 0]; L [A 11]; L [A 7; A 1]; L 
[A 7; A 1]; L [A 4; A 1]; L [A 8; A 1]; L [A 1; A 0; A 1]; L [A 4; A 0]]]; L [A 0; L []]]].
Definition exg_obs : sx := L [L [L [A 0; A 0; L [A 1; L []]; L []; L [A 1; L []]; A 0]; L [A 5; A 0; A 0]; L [A 5; A 
1; A 0]; L [A 20; L [A 0]; L [A 0]]; L [A 19; A 0]; L [A 1; A 0; A 0]; L [A 1; A 0; A 64]; L [A 1; A 0; A 128]; L [A 
1; A 0; A 192]; L [A 3; A 0; A 20]; L [A 30; A 0; L [A 1]]; L [A 20; L [A 0]; L [A 0]]; L [A 19; A 1]; L [A 4; A 0; A 
0; A 0; A 1; A 3; A 1000]; L [A 30; A 1; L [A 0; A 0; A 1; A 0]]; L [A 14; A 1; A 10; A 0]; L [A 20; L [A 0]; L [A 2; 
A 10; A 0]]; L [A 19; A 2]; L [A 30; A 2; L [A 5]]; L [A 20; L [A 0]; L [A 2; A 10; A 0]]; L [A 16; A 10]; L [A 20; L 
[A 0]; L [A 2; A 10; A 0]]; L [A 15; A 1; A 10]; L [A 8; A 0]; L [A 10; A 1]; L [A 20; L [A 0]; L [A 3; A 1]]; L [A 
11; A 1]; L [A 9]; L [A 6; A 1; A 1; L [L [A 0; A 20; L []]; L [A 64; A 0; L []]; L [A 128; A 0; L []]; L [A 192; A 
0; L [A 1000]]]]; L [A 12; A 1; A 1; A 1; L [L [A 0; A 20; L []]; L [A 64; A 0; L []]; L [A 128; A 0; L []]; L [A 
192; A 0; L [A 1000]]]]; L [A 20; L [A 0]; L [A 1; A 1]]; L [A 13; A 1; A 1]; L [A 7; A 1]; L [A 5; A 1; A 0]; L [A 
20; L [A 0]; L [A 0]]; L [A 19; A 3]; L [A 30; A 3; L [A 1]]; L [A 20; L [A 0]; L [A 0]]; L [A 19; A 4]; L [A 30; A 
4; L [A 5]]; L [A 17]; L [A 8; A 0]; L [A 10; A 2]; L [A 20; L [A 0]; L [A 3; A 2]]; L [A 19; A 5]; L [A 30; A 5; L 
[A 5]]; L [A 11; A 1]; L [A 9]; L [A 8; A 1]; L [A 10; A 3]; L [A 20; L [A 0]; L [A 3; A 3]]; L [A 19; A 6]; L [A 30; 
A 6; L [A 5]]; L [A 11; A 1]; L [A 9]; L [A 6; A 1; A 1; L [L [A 0; A 20; L []]; L [A 64; A 0; L []]; L [A 128; A 0; 
L []]; L [A 192; A 0; L [A 1000]]]]; L [A 12; A 1; A 2; A 1; L [L [A 0; A 20; L []]; L [A 64; A 0; L []]; L [A 128; A 
0; L []]; L [A 192; A 0; L [A 1000]]]]; L [A 20; L [A 0]; L [A 1; A 2]]; L [A 19; A 7]; L [A 30; A 7; L [A 0; A 0; A 
1; A 0]]; L [A 20; L [A 0]; L [A 1; A 2]]; L [A 19; A 8]; L [A 30; A 8; L [A 5]]; L [A 13; A 1; A 1]; L [A 7; A 1]; L 
[A 18]; L [A 20; L [A 0]; L [A 4]]; L [A 19; A 9]; L [A 3; A 0; A 24]; L [A 4; A 1; A 1; A 14]; L [A 30; A 9; L [A 0; 
A 14; A 0; A 1]]; L [A 20; L [A 0]; L [A 4]]; L [A 19; A 10]; L [A 30; A 10; L [A 3]]; L [A 20; L [A 0]; L [A 4]]]; L 
[L [A 0; A 4; L [A 1; L [L [A 0; A 20; L []]; L [A 64; A 0; L []]; L [A 128; A 0; L []]; L [A 192; A 0; L [A 
1000]]]]; L [A 1; A 1; A 1; A 1]; L [A 1; L [L [A 0; A 20; L []]; L [A 64; A 0; L []]; L [A 128; A 0; L []]; L [A 
192; A 0; L [A 1000]]]]; A 0]; L [A 5; A 1; A 0]; L [A 5; A 0; A 0]; L [A 20; L [A 0]; L [A 0]]; L [A 19; A (-1)]; L 
[A 20; L [A 0]; L [A 0]]; L [A 20; L [A 0]; L [A 0]]; L [A 32; A 0; A 0; A 0; A 0; L [A 0; A 20; A 121; A 66; A 189; 
A 242; A 33; A 6; A 240; A 132; A 119; A 98; A 240; A 243; A 203; A 77; A 118; A 77; A 199; A 7]]; L [A 20; L [A 0]; 
L [A 0]]; L [A 20; L [A 0]; L [A 0]]; L [A 32; A 1; A 0; A 1; A 5; L []]; L [A 20; L [A 0]; L [A 0]]; L [A 20; L [A 
0]; L [A 0]]; L [A 32; A 2; A 0; A 1; A 5; L []]; L [A 20; L [A 0]; L [A 0]]; L [A 20; L [A 0]; L [A 0]]; L [A 32; A 
3; A 0; A 1; A 5; L []]; L [A 20; L [A 0]; L [A 0]]; L [A 20; L [A 0]; L [A 0]]; L [A 32; A 4; A 0; A 1; A 5; L []]; 
L [A 20; L [A 0]; L [A 0]]; L [A 20; L [A 0]; L [A 0]]; L [A 32; A 5; A 0; A 1; A 5; L []]]].
Definition exc_inp : sx := L [L [A 48; A 1; A 1; A 2; A 0; A 1; A 0; A 0; A 16; A 0; A 3; A 0; A 61]; L [L [A 0; A 
20; A 121; A 66; A 189; A 242; A 33; A 6; A 240; A 132; A 119; A 98; A 240; A 243; A 203; A 77; A 118; A 77; A 199; A 
7]; L [A 1; A 24; A 32; A 81; A 21; A 154; A 15; A 137; A 242; A 198; A 218; A 202; A 227; A 68; A 187; A 49; A 18; A 
69; A 253; A 111; A 132; A 223; A 154; A 215]; L [A 2; A 18; A 197; A 179; A 208; A 118; A 172; A 14; A 143; A 83; A 
167; A 53; A 108; A 136; A 145; A 63; A 32; A 246]; L [A 3; A 30; A 247; A 45; A 176; A 34; A 210; A 77; A 10; A 150; 
A 218; A 212; A 60; A 22; A 23; A 193; A 169; A 142; A 120; A 18; A 158; A 3; A 39; A 55; A 16; A 101; A 208; A 149; 
A 134; A 79]; L [A 4; A 12; A 21; A 173; A 160; A 184; A 70; A 193; A 192; A 235; A 197; A 52]; L [A 5; A 22; A 138; 
A 220; A 121; A 154; A 223; A 132; A 155; A 173; A 5; A 212; A 161; A 10; A 192; A 68; A 30; A 170; A 238; A 180; A 
180; A 142]]; L [L [A 0; L [L [A 1; A 0; A 0]; L [A 4; A 0]; L [A 1; A 0; A 1]; L [A 4; A 0]; L [A 13]]]; L [A 2; L 
[L [A 1; A 0; A 2]; L [A 4; A 0]; L [A 13]; L [A 1; A 0; A 3]; L [A 4; A 0]]]; L [A 0; L []]]].
Definition exc_obs : sx := L [L [L [A 0; A 0; L [A 1; L []]; L []; L [A 1; L []]; A 0]; L [A 5; A 0; A 0]; L [A 5; A 
1; A 0]; L [A 20; L [A 0]; L [A 0]]; L [A 19; A 0]; L [A 1; A 0; A 0]; L [A 1; A 0; A 48]; L [A 1; A 0; A 96]; L [A 
3; A 0; A 20]; L [A 30; A 0; L [A 1]]; L [A 20; L [A 0]; L [A 0]]; L [A 19; A 1]; L [A 4; A 0; A 0; A 0; A 1; A 2; A 
1000]; L [A 30; A 1; L [A 0; A 0; A 1; A 0]]; L [A 14; A 1; A 0; A 0]; L [A 20; L [A 0]; L [A 2; A 0; A 0]]; L [A 19; 
A 2]; L [A 3; A 0; A 24]; L [A 30; A 2; L [A 1]]; L [A 20; L [A 0]; L [A 2; A 0; A 0]]; L [A 19; A 3]; L [A 4; A 1; A 
0; A 20; A 1; A 2; A 1000]; L [A 30; A 3; L [A 0; A 0; A 1; A 1]]; L [A 20; L [A 0]; L [A 2; A 0; A 0]]; L [A 19; A 
4]; L [A 30; A 4; L [A 5]]; L [A 20; L [A 0]; L [A 2; A 0; A 0]]; L [A 15; A 1; A 0]; L [A 8; A 0]; L [A 10; A 1]; L 
[A 20; L [A 0]; L [A 3; A 1]]; L [A 11; A 1]; L [A 9]; L [A 6; A 1; A 1; L [L [A 0; A 44; L []]; L [A 48; A 0; L []]; 
L [A 96; A 0; L [A 1000]]]]; L [A 12; A 1; A 1; A 1; L [L [A 0; A 44; L []]; L [A 48; A 0; L []]; L [A 96; A 0; L [A 
1000]]]]; L [A 20; L [A 0]; L [A 1; A 1]]; L [A 13; A 1; A 1]; L [A 7; A 1]; L [A 5; A 1; A 0]; L [A 20; L [A 0]; L 
[A 0]]]; L [L [A 0; A 3; L [A 1; L [L [A 0; A 44; L []]; L [A 48; A 0; L []]; L [A 96; A 0; L [A 1000]]]]; L [A 1; A 
1; A 1]; L [A 1; L [L [A 0; A 44; L []]; L [A 48; A 0; L []]; L [A 96; A 0; L [A 1000]]]]; A 0]; L [A 5; A 1; A 0]; L 
[A 5; A 0; A 0]; L [A 20; L [A 0]; L [A 0]]; L [A 19; A (-1)]; L [A 20; L [A 0]; L [A 0]]; L [A 20; L [A 0]; L [A 
0]]; L [A 32; A 0; A 0; A 0; A 0; L [A 0; A 20; A 121; A 66; A 189; A 242; A 33; A 6; A 240; A 132; A 119; A 98; A 
240; A 243; A 203; A 77; A 118; A 77; A 199; A 7]]; L [A 20; L [A 0]; L [A 0]]; L [A 20; L [A 0]; L [A 0]]; L [A 32; 
A 1; A 0; A 0; A 0; L [A 1; A 24; A 32; A 81; A 21; A 154; A 15; A 137; A 242; A 198; A 218; A 202; A 227; A 68; A 
187; A 49; A 18; A 69; A 253; A 111; A 132; A 223; A 154; A 215]]; L [A 20; L [A 0]; L [A 0]]; L [A 20; L [A 0]; L [A 
0]]; L [A 32; A 2; A 0; A 1; A 5; L []]; L [A 20; L [A 0]; L [A 0]]; L [A 20; L [A 0]; L [A 0]]; L [A 32; A 3; A 0; A 
1; A 5; L []]; L [A 20; L [A 0]; L [A 0]]; L [A 20; L [A 0]; L [A 0]]; L [A 32; A 4; A 0; A 1; A 5; L []]; L [A 20; L 
[A 0]; L [A 0]]; L [A 20; L [A 0]; L [A 0]]; L [A 32; A 5; A 0; A 1; A 5; L []]; L [A 19; A 0]; L [A 3; A 1; A 18]; L 
[A 30; A 0; L [A 1]]; L [A 20; L [A 0]; L [A 0]]; L [A 19; A 1]; L [A 4; A 0; A 0; A 0; A 2; A 1; A 1001]; L [A 30; A 
1; L [A 0; A 0; A 1; A 2]]; L [A 14; A 1; A 0; A 0]; L [A 20; L [A 0]; L [A 2; A 0; A 0]]; L [A 19; A 2]; L [A 30; A 
2; L [A 5]]; L [A 20; L [A 0]; L [A 2; A 0; A 0]]; L [A 15; A 1; A 0]; L [A 8; A 0]; L [A 10; A 1]; L [A 20; L [A 0]; 
L [A 3; A 1]]; L [A 11; A 1]; L [A 9]; L [A 6; A 1; A 1; L [L [A 0; A 44; L []]; L [A 48; A 18; L []]; L [A 96; A 0; 
L [A 1000; A 1001]]]]; L [A 12; A 1; A 1; A 1; L [L [A 0; A 44; L []]; L [A 48; A 18; L []]; L [A 96; A 0; L [A 1000; 
A 1001]]]]; L [A 20; L [A 0]; L [A 1; A 1]]; L [A 13; A 1; A 1]; L [A 7; A 1]; L [A 5; A 1; A 0]; L [A 20; L [A 0]; L 
[A 0]]; L [A 19; A 3]; L [A 3; A 1; A 30]; L [A 30; A 3; L [A 1]]; L [A 20; L [A 0]; L [A 0]]; L [A 19; A 4]; L [A 4; 
A 1; A 0; A 18; A 3; A 1; A 1002]; L [A 30; A 4; L [A 0; A 0; A 1; A 3]]; L [A 14; A 1; A 0; A 0]; L [A 20; L [A 0]; 
L [A 2; A 0; A 0]]]; L [L [A 0; A 3; L [A 1; L [L [A 0; A 44; L []]; L [A 48; A 18; L []]; L [A 96; A 0; L [A 1000; A 
1001]]]]; L [A 1; A 1; A 1]; L [A 1; L [L [A 0; A 44; L []]; L [A 48; A 18; L []]; L [A 96; A 0; L [A 1000; A 
1001]]]]; A 0]; L [A 5; A 0; A 0]; L [A 5; A 1; A 0]; L [A 20; L [A 0]; L [A 0]]; L [A 19; A (-1)]; L [A 20; L [A 0]; 
L [A 0]]; L [A 20; L [A 0]; L [A 0]]; L [A 32; A 0; A 0; A 0; A 0; L [A 0; A 20; A 121; A 66; A 189; A 242; A 33; A 
6; A 240; A 132; A 119; A 98; A 240; A 243; A 203; A 77; A 118; A 77; A 199; A 7]]; L [A 20; L [A 0]; L [A 0]]; L [A 
20; L [A 0]; L [A 0]]; L [A 32; A 1; A 0; A 0; A 0; L [A 1; A 24; A 32; A 81; A 21; A 154; A 15; A 137; A 242; A 198; 
A 218; A 202; A 227; A 68; A 187; A 49; A 18; A 69; A 253; A 111; A 132; A 223; A 154; A 215]]; L [A 20; L [A 0]; L 
[A 0]]; L [A 20; L [A 0]; L [A 0]]; L [A 32; A 2; A 0; A 0; A 0; L [A 2; A 18; A 197; A 179; A 208; A 118; A 172; A 
14; A 143; A 83; A 167; A 53; A 108; A 136; A 145; A 63; A 32; A 246]]; L [A 20; L [A 0]; L [A 0]]; L [A 20; L [A 0]; 
L [A 0]]; L [A 32; A 3; A 0; A 1; A 5; L []]; L [A 20; L [A 0]; L [A 0]]; L [A 20; L [A 0]; L [A 0]]; L [A 32; A 4; A 
0; A 1; A 5; L []]; L [A 20; L [A 0]; L [A 0]]; L [A 20; L [A 0]; L [A 0]]; L [A 32; A 5; A 0; A 1; A 5; L []]]].

(** [exg_obs] with ONE op result altered by hand (the result of the refused upload, entry (30 9 ...), from
    UNAVAILABLE to OK): NOT an observation of the code; the replay ignores op results and still accepts it. *)
Definition exb_obs : sx := L [L [L [A 0; A 0; L [A 1; L []]; L []; L [A 1; L []]; A 0]; L [A 5; A 0; A 0]; L [A 5; A 
1; A 0]; L [A 20; L [A 0]; L [A 0]]; L [A 19; A 0]; L [A 1; A 0; A 0]; L [A 1; A 0; A 64]; L [A 1; A 0; A 128]; L [A 
1; A 0; A 192]; L [A 3; A 0; A 20]; L [A 30; A 0; L [A 1]]; L [A 20; L [A 0]; L [A 0]]; L [A 19; A 1]; L [A 4; A 0; A 
0; A 0; A 1; A 3; A 1000]; L [A 30; A 1; L [A 0; A 0; A 1; A 0]]; L [A 14; A 1; A 10; A 0]; L [A 20; L [A 0]; L [A 2; 
A 10; A 0]]; L [A 19; A 2]; L [A 30; A 2; L [A 5]]; L [A 20; L [A 0]; L [A 2; A 10; A 0]]; L [A 16; A 10]; L [A 20; L 
[A 0]; L [A 2; A 10; A 0]]; L [A 15; A 1; A 10]; L [A 8; A 0]; L [A 10; A 1]; L [A 20; L [A 0]; L [A 3; A 1]]; L [A 
11; A 1]; L [A 9]; L [A 6; A 1; A 1; L [L [A 0; A 20; L []]; L [A 64; A 0; L []]; L [A 128; A 0; L []]; L [A 192; A 
0; L [A 1000]]]]; L [A 12; A 1; A 1; A 1; L [L [A 0; A 20; L []]; L [A 64; A 0; L []]; L [A 128; A 0; L []]; L [A 
192; A 0; L [A 1000]]]]; L [A 20; L [A 0]; L [A 1; A 1]]; L [A 13; A 1; A 1]; L [A 7; A 1]; L [A 5; A 1; A 0]; L [A 
20; L [A 0]; L [A 0]]; L [A 19; A 3]; L [A 30; A 3; L [A 1]]; L [A 20; L [A 0]; L [A 0]]; L [A 19; A 4]; L [A 30; A 
4; L [A 5]]; L [A 17]; L [A 8; A 0]; L [A 10; A 2]; L [A 20; L [A 0]; L [A 3; A 2]]; L [A 19; A 5]; L [A 30; A 5; L 
[A 5]]; L [A 11; A 1]; L [A 9]; L [A 8; A 1]; L [A 10; A 3]; L [A 20; L [A 0]; L [A 3; A 3]]; L [A 19; A 6]; L [A 30; 
A 6; L [A 5]]; L [A 11; A 1]; L [A 9]; L [A 6; A 1; A 1; L [L [A 0; A 20; L []]; L [A 64; A 0; L []]; L [A 128; A 0; 
L []]; L [A 192; A 0; L [A 1000]]]]; L [A 12; A 1; A 2; A 1; L [L [A 0; A 20; L []]; L [A 64; A 0; L []]; L [A 128; A 
0; L []]; L [A 192; A 0; L [A 1000]]]]; L [A 20; L [A 0]; L [A 1; A 2]]; L [A 19; A 7]; L [A 30; A 7; L [A 0; A 0; A 
1; A 0]]; L [A 20; L [A 0]; L [A 1; A 2]]; L [A 19; A 8]; L [A 30; A 8; L [A 5]]; L [A 13; A 1; A 1]; L [A 7; A 1]; L 
[A 18]; L [A 20; L [A 0]; L [A 4]]; L [A 19; A 9]; L [A 3; A 0; A 24]; L [A 4; A 1; A 1; A 14]; L [A 30; A 9; L [A 0; 
A 0; A 1; A 1]]; L [A 20; L [A 0]; L [A 4]]; L [A 19; A 10]; L [A 30; A 10; L [A 3]]; L [A 20; L [A 0]; L [A 4]]]; L 
[L [A 0; A 4; L [A 1; L [L [A 0; A 20; L []]; L [A 64; A 0; L []]; L [A 128; A 0; L []]; L [A 192; A 0; L [A 
1000]]]]; L [A 1; A 1; A 1; A 1]; L [A 1; L [L [A 0; A 20; L []]; L [A 64; A 0; L []]; L [A 128; A 0; L []]; L [A 
192; A 0; L [A 1000]]]]; A 0]; L [A 5; A 1; A 0]; L [A 5; A 0; A 0]; L [A 20; L [A 0]; L [A 0]]; L [A 19; A (-1)]; L 
[A 20; L [A 0]; L [A 0]]; L [A 20; L [A 0]; L [A 0]]; L [A 32; A 0; A 0; A 0; A 0; L [A 0; A 20; A 121; A 66; A 189; 
A 242; A 33; A 6; A 240; A 132; A 119; A 98; A 240; A 243; A 203; A 77; A 118; A 77; A 199; A 7]]; L [A 20; L [A 0]; 
L [A 0]]; L [A 20; L [A 0]; L [A 0]]; L [A 32; A 1; A 0; A 1; A 5; L []]; L [A 20; L [A 0]; L [A 0]]; L [A 20; L [A 
0]; L [A 0]]; L [A 32; A 2; A 0; A 1; A 5; L []]; L [A 20; L [A 0]; L [A 0]]; L [A 20; L [A 0]; L [A 0]]; L [A 32; A 
3; A 0; A 1; A 5; L []]; L [A 20; L [A 0]; L [A 0]]; L [A 20; L [A 0]; L [A 0]]; L [A 32; A 4; A 0; A 1; A 5; L []]; 
L [A 20; L [A 0]; L [A 0]]; L [A 20; L [A 0]; L [A 0]]; L [A 32; A 5; A 0; A 1; A 5; L []]]].

(** [exg_obs] with the read-back of key 0 in the second incarnation altered by hand from "readable, right bytes"
    to NOT_FOUND: NOT an observation of the code; the replay ignores read-back entries and still accepts it. *)
Definition exr_obs : sx := L [L [L [A 0; A 0; L [A 1; L []]; L []; L [A 1; L []]; A 0]; L [A 5; A 0; A 0]; L [A 5; A 
1; A 0]; L [A 20; L [A 0]; L [A 0]]; L [A 19; A 0]; L [A 1; A 0; A 0]; L [A 1; A 0; A 64]; L [A 1; A 0; A 128]; L [A 
1; A 0; A 192]; L [A 3; A 0; A 20]; L [A 30; A 0; L [A 1]]; L [A 20; L [A 0]; L [A 0]]; L [A 19; A 1]; L [A 4; A 0; A 
0; A 0; A 1; A 3; A 1000]; L [A 30; A 1; L [A 0; A 0; A 1; A 0]]; L [A 14; A 1; A 10; A 0]; L [A 20; L [A 0]; L [A 2; 
A 10; A 0]]; L [A 19; A 2]; L [A 30; A 2; L [A 5]]; L [A 20; L [A 0]; L [A 2; A 10; A 0]]; L [A 16; A 10]; L [A 20; L 
[A 0]; L [A 2; A 10; A 0]]; L [A 15; A 1; A 10]; L [A 8; A 0]; L [A 10; A 1]; L [A 20; L [A 0]; L [A 3; A 1]]; L [A 
11; A 1]; L [A 9]; L [A 6; A 1; A 1; L [L [A 0; A 20; L []]; L [A 64; A 0; L []]; L [A 128; A 0; L []]; L [A 192; A 
0; L [A 1000]]]]; L [A 12; A 1; A 1; A 1; L [L [A 0; A 20; L []]; L [A 64; A 0; L []]; L [A 128; A 0; L []]; L [A 
192; A 0; L [A 1000]]]]; L [A 20; L [A 0]; L [A 1; A 1]]; L [A 13; A 1; A 1]; L [A 7; A 1]; L [A 5; A 1; A 0]; L [A 
20; L [A 0]; L [A 0]]; L [A 19; A 3]; L [A 30; A 3; L [A 1]]; L [A 20; L [A 0]; L [A 0]]; L [A 19; A 4]; L [A 30; A 
4; L [A 5]]; L [A 17]; L [A 8; A 0]; L [A 10; A 2]; L [A 20; L [A 0]; L [A 3; A 2]]; L [A 19; A 5]; L [A 30; A 5; L 
[A 5]]; L [A 11; A 1]; L [A 9]; L [A 8; A 1]; L [A 10; A 3]; L [A 20; L [A 0]; L [A 3; A 3]]; L [A 19; A 6]; L [A 30; 
A 6; L [A 5]]; L [A 11; A 1]; L [A 9]; L [A 6; A 1; A 1; L [L [A 0; A 20; L []]; L [A 64; A 0; L []]; L [A 128; A 0; 
L []]; L [A 192; A 0; L [A 1000]]]]; L [A 12; A 1; A 2; A 1; L [L [A 0; A 20; L []]; L [A 64; A 0; L []]; L [A 128; A 
0; L []]; L [A 192; A 0; L [A 1000]]]]; L [A 20; L [A 0]; L [A 1; A 2]]; L [A 19; A 7]; L [A 30; A 7; L [A 0; A 0; A 
1; A 0]]; L [A 20; L [A 0]; L [A 1; A 2]]; L [A 19; A 8]; L [A 30; A 8; L [A 5]]; L [A 13; A 1; A 1]; L [A 7; A 1]; L 
[A 18]; L [A 20; L [A 0]; L [A 4]]; L [A 19; A 9]; L [A 3; A 0; A 24]; L [A 4; A 1; A 1; A 14]; L [A 30; A 9; L [A 0; 
A 14; A 0; A 1]]; L [A 20; L [A 0]; L [A 4]]; L [A 19; A 10]; L [A 30; A 10; L [A 3]]; L [A 20; L [A 0]; L [A 4]]]; L 
[L [A 0; A 4; L [A 1; L [L [A 0; A 20; L []]; L [A 64; A 0; L []]; L [A 128; A 0; L []]; L [A 192; A 0; L [A 
1000]]]]; L [A 1; A 1; A 1; A 1]; L [A 1; L [L [A 0; A 20; L []]; L [A 64; A 0; L []]; L [A 128; A 0; L []]; L [A 
192; A 0; L [A 1000]]]]; A 0]; L [A 5; A 1; A 0]; L [A 5; A 0; A 0]; L [A 20; L [A 0]; L [A 0]]; L [A 19; A (-1)]; L 
[A 20; L [A 0]; L [A 0]]; L [A 20; L [A 0]; L [A 0]]; L [A 32; A 0; A 0; A 1; A 5; L []]; L [A 20; L [A 0]; L [A 0]]; 
L [A 20; L [A 0]; L [A 0]]; L [A 32; A 1; A 0; A 1; A 5; L []]; L [A 20; L [A 0]; L [A 0]]; L [A 20; L [A 0]; L [A 
0]]; L [A 32; A 2; A 0; A 1; A 5; L []]; L [A 20; L [A 0]; L [A 0]]; L [A 20; L [A 0]; L [A 0]]; L [A 32; A 3; A 0; A 
1; A 5; L []]; L [A 20; L [A 0]; L [A 0]]; L [A 20; L [A 0]; L [A 0]]; L [A 32; A 4; A 0; A 1; A 5; L []]; L [A 20; L 
[A 0]; L [A 0]]; L [A 20; L [A 0]; L [A 0]]; L [A 32; A 5; A 0; A 1; A 5; L []]]].
