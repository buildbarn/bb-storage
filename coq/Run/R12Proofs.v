(** C12 — the run-time monitors [mon12_sel] / [mon12_ba] never fire on what the
    model itself predicts, nor on any observation the judge accepts as
    agreeing with the model (FindMissing failures may name any one of the
    failing shards).

    Selector cases need one hypothesis: every variant the constructor accepts
    has non-zero weights (with a zero weight the code's answer depends on the
    listing order, see [C12.weight0_order_dependent]).  No bound on hashes or
    key hashes is needed: splitmix64 wraps.  Blob-access cases need none. *)
From Coq Require Import List Arith NArith ZArith Bool Lia.
From BBS Require Import Common.Sx Common.ListX Common.SxFactsMA Generated.Consts
     Sharding.Rendezvous Sharding.RendezvousArith Sharding.RendezvousProofs Sharding.MonSilentSel
     Run.R12.
Import ListNotations.
Open Scope Z_scope.

Lemma existsb_all_false {T} (f : T -> bool) l : (forall x, In x l -> f x = false) -> existsb f l = false.
Proof.
  induction l as [|a l IH]; intros H; [reflexivity|]. cbn [existsb].
  rewrite (H a (or_introl eq_refl)), IH; [reflexivity|]. intros x Hx. apply H. right; exact Hx.
Qed.

Lemma memb_in x l : memb x l = true <-> In x l.
Proof.
  unfold memb. rewrite existsb_exists. split.
  - intros (y & Hy & He). apply Nat.eqb_eq in He. subst. exact Hy.
  - intros H. exists x. split; [exact H|apply Nat.eqb_refl].
Qed.

Definition variants12 (inp : sx) : list (list nat) := map sx_nats (sx_list (sx_nth inp 2)).

(** every variant accepted by the constructor has weights >= 1 *)
Definition wf12_sel (inp : sx) : Prop :=
  forall v, In v (variants12 inp) ->
            new_selector (pool_cfg (sx_nth inp 1) v) <> None ->
            weights_pos (pool_cfg (sx_nth inp 1) v).

Definition choice12 (sel : list shard) (v : list nat) (h : N) : nat := nth (get_shard sel h) v 0%nat.

Lemma is_reject_choices (f : N -> nat) hashes : is_reject (L (map (fun h => of_nat (f h)) hashes)) = false.
Proof.
  destruct hashes as [|h [|h' t]]; cbn; try reflexivity.
  apply Z.eqb_neq. lia.
Qed.

Lemma sx_nats_choices (f : N -> nat) hashes : sx_nats (L (map (fun h => of_nat (f h)) hashes)) = map f hashes.
Proof.
  rewrite <- (map_map f of_nat). apply (sx_nats_of_nats (map f hashes)).
Qed.

Lemma variant_choices_cases pool v hashes :
  (new_selector (pool_cfg pool v) = None /\ variant_choices pool v hashes = L [A (-3)]) \/
  (exists sel, new_selector (pool_cfg pool v) = Some sel /\
               variant_choices pool v hashes = L (map (fun h => of_nat (choice12 sel v h)) hashes)).
Proof.
  unfold variant_choices. destruct (new_selector (pool_cfg pool v)) as [sel|].
  - right. exists sel. split; reflexivity.
  - left. split; reflexivity.
Qed.

Lemma zip_ok_pointwise vj vk (cj ck : N -> nat) hashes :
  (forall h, In (cj h) vk -> In (ck h) vj -> cj h = ck h) ->
  zip_ok vj vk (map cj hashes) (map ck hashes) = true.
Proof.
  intros H. induction hashes as [|h t IH]; [reflexivity|]. cbn [map zip_ok].
  rewrite IH, andb_true_r.
  destruct (memb (cj h) vk) eqn:Ha; [|reflexivity].
  destruct (memb (ck h) vj) eqn:Hb; [|reflexivity]. cbn [andb].
  apply Nat.eqb_eq. apply H; apply memb_in; assumption.
Qed.

Section SelChoice.
  Variable pool : sx.
  Let e (i : nat) : N * N := (sx_N (sx_nth (sx_nth pool i) 1), sx_N (sx_nth (sx_nth pool i) 2)).

  Lemma pool_cfg_map v : pool_cfg pool v = map e v.
  Proof. reflexivity. Qed.

  Lemma choice_member v sel h :
    new_selector (pool_cfg pool v) = Some sel -> In (choice12 sel v h) v.
  Proof.
    intros Hs. unfold choice12. apply nth_In.
    pose proof (get_shard_in_range _ _ h Hs) as H. rewrite pool_cfg_map, map_length in H. exact H.
  Qed.

  Lemma choice_best v sel h :
    new_selector (pool_cfg pool v) = Some sel -> weights_pos (pool_cfg pool v) ->
    is_bestP (scoreP h) (pool_cfg pool v) (e (choice12 sel v h)).
  Proof.
    intros Hs Hw. destruct (get_shard_best _ _ h Hs Hw) as (p & Hn & Hb).
    rewrite pool_cfg_map, nth_error_map in Hn.
    destruct (nth_error v (get_shard sel h)) as [a|] eqn:Ha; [|discriminate]. inversion Hn; subst p.
    unfold choice12. rewrite (nth_error_nth _ _ 0%nat Ha). exact Hb.
  Qed.

  Lemma choice_iia vj vk selj selk h :
    new_selector (pool_cfg pool vj) = Some selj -> weights_pos (pool_cfg pool vj) ->
    new_selector (pool_cfg pool vk) = Some selk -> weights_pos (pool_cfg pool vk) ->
    In (choice12 selj vj h) vk -> In (choice12 selk vk h) vj ->
    choice12 selj vj h = choice12 selk vk h.
  Proof.
    intros Hsj Hwj Hsk Hwk Hjk Hkj.
    pose proof (choice_best vj selj h Hsj Hwj) as Hbj.
    pose proof (choice_best vk selk h Hsk Hwk) as Hbk.
    assert (Hf : fst (e (choice12 selj vj h)) = fst (e (choice12 selk vk h))).
    { apply (is_bestP_cross_fst (scoreP h) (pool_cfg pool vj) (pool_cfg pool vk)); try assumption.
      - rewrite pool_cfg_map. apply in_map. exact Hjk.
      - rewrite pool_cfg_map. apply in_map. exact Hkj. }
    destruct (new_selector_some _ _ Hsj) as (_ & Hnd & _).
    rewrite pool_cfg_map, map_map in Hnd.
    apply (NoDup_map_inj (fun i => fst (e i)) vj); try assumption.
    apply (choice_member vj selj h Hsj).
  Qed.
End SelChoice.

Theorem mon12_sel_silent : forall inp, wf12_sel inp -> mon12_sel inp (run12_sel inp) = [].
Proof.
  intros inp Hwf.
  assert (Hpairs : forall v o, In (v, o) (combine (variants12 inp) (sx_list (run12_sel inp))) ->
            In v (variants12 inp) /\ o = variant_choices (sx_nth inp 1) v (sx_Ns (sx_nth inp 3))).
  { intros v o H. apply (in_combine_map_iff (fun v => variant_choices _ v _)). exact H. }
  assert (Hw : forall v sel, In v (variants12 inp) -> new_selector (pool_cfg (sx_nth inp 1) v) = Some sel ->
                             weights_pos (pool_cfg (sx_nth inp 1) v)).
  { intros v sel Hv Hs. apply Hwf; [exact Hv|rewrite Hs; discriminate]. }
  set (pool := sx_nth inp 1) in *. set (hashes := sx_Ns (sx_nth inp 3)) in *.
  unfold mon12_sel. cbv zeta. apply two_clauses_silent.
  - apply existsb_all_false. intros [vj oj] Hj. apply existsb_all_false. intros [vk ok] Hk.
    destruct (Hpairs _ _ Hj) as [Hvj ->]. destruct (Hpairs _ _ Hk) as [Hvk ->].
    destruct (variant_choices_cases pool vj hashes) as [[_ ->]|(selj & Hsj & ->)]; [reflexivity|].
    destruct (variant_choices_cases pool vk hashes) as [[_ ->]|(selk & Hsk & ->)];
      [rewrite orb_true_r; reflexivity|].
    rewrite !is_reject_choices. cbn [orb]. rewrite !sx_nats_choices.
    rewrite zip_ok_pointwise; [reflexivity|].
    intros h Ha Hb. apply (choice_iia pool vj vk selj selk h); try assumption.
    + exact (Hw vj selj Hvj Hsj).
    + exact (Hw vk selk Hvk Hsk).
  - apply existsb_all_false. intros [vj oj] Hj. destruct (Hpairs _ _ Hj) as [Hvj ->].
    destruct (variant_choices_cases pool vj hashes) as [[_ ->]|(selj & Hsj & ->)]; [reflexivity|].
    rewrite is_reject_choices, sx_nats_choices.
    apply negb_false_iff. apply forallb_forall. intros c Hc. apply in_map_iff in Hc.
    destruct Hc as (h & <- & _). apply memb_in. apply (choice_member pool vj selj h Hsj).
Qed.

Lemma Zmatch3 {T} (a b : T) z : z <> 3 -> match z with 3 => a | _ => b end = b.
Proof. intros H. destruct z as [|[[p|p|]|p|]|p]; try reflexivity. contradiction. Qed.

Lemma all2_pointwise (f : sx -> sx -> bool) (g : sx -> sx) ops os :
  all2 f (map g ops) os = true -> forall op o, In (op, o) (combine ops os) -> f (g op) o = true.
Proof.
  revert os. induction ops as [|a ops IH]; intros os H op o Hin; [destruct Hin|].
  destruct os as [|b os]; [discriminate H|]. cbn [map all2] in H. apply andb_true_iff in H.
  destruct Hin as [Hin|Hin]; [injection Hin as <- <-; apply H|apply (IH os (proj2 H) op o Hin)].
Qed.

Lemma agree12_op_cases m o :
  agree12_op m o = true ->
  m = o \/ exists failing named,
             sx_nth m 1 = L [A 14; L failing] /\ sx_nth o 1 = L [A 14; L [named]]
             /\ sx_nth m 0 = sx_nth o 0 /\ In named failing.
Proof.
  unfold agree12_op. intros H.
  destruct (sx_nth m 1) as [z|[|[z|l] r]]; try (left; apply sx_eqb_eq; exact H).
  destruct z as [|[p|[[[p|p|]|p|]|p|]|]|p]; try (left; apply sx_eqb_eq; exact H).
  destruct r as [|[z'|failing] [|x t]]; try (left; apply sx_eqb_eq; exact H).
  destruct (sx_nth o 1) as [z|[|[z|l] r]]; try (left; apply sx_eqb_eq; exact H).
  destruct z as [|[p|[[[p|p|]|p|]|p|]|]|p]; try (left; apply sx_eqb_eq; exact H).
  destruct r as [|[z'|[|named [|y u]]] [|x t]]; try (left; apply sx_eqb_eq; exact H).
  right. exists failing, named. apply andb_true_iff in H. destruct H as [H0 H1].
  apply existsb_exists in H1. destruct H1 as (f & Hf & Heq). apply sx_eqb_eq in Heq. subst f.
  split; [reflexivity|]. split; [reflexivity|]. split; [apply sx_eqb_eq; exact H0|exact Hf].
Qed.

Lemma agree12_op_refl m : agree12_op m m = true.
Proof.
  unfold agree12_op.
  destruct (sx_nth m 1) as [z|[|[z|l] r]]; try apply sx_eqb_refl.
  destruct z as [|[p|[[[p|p|]|p|]|p|]|]|p]; try apply sx_eqb_refl.
  destruct r as [|[z'|[|named [|y u]]] [|x t]]; try apply sx_eqb_refl.
  cbn [existsb]. rewrite !sx_eqb_refl. reflexivity.
Qed.

Section BA.
  Variable digests : sx.
  Let hd (i : nat) : N := sx_N (sx_nth (sx_nth digests i) 0).
  Let dg_of (i : nat) : dg := (hd i, i).
  Let mod3 := fun x => Nat.eqb (Nat.modulo x 3) 0.
  Let enc_asked := fun '((i, p) : nat * list nat) => L [of_nat i; of_nats p].

  (** what [run12_op] computes, by kind *)
  Lemma run12_op_fm sel nb op :
    sx_Z (sx_nth op 0) = 3 ->
    run12_op sel nb digests op =
      let ds := map dg_of (sx_nats (sx_nth op 1)) in
      let faults := map sx_bool (sx_list (sx_nth op 2)) in
      let fm := find_missing sel nb (fm_oracle faults) ds in
      L [L (map enc_asked (fst fm));
         match snd fm with
         | Some r => L [A 0; of_nats r]
         | None => L [A 14; of_nats (map fst (filter (fun '(i, _) => nth i faults false) (fst fm)))]
         end].
  Proof.
    intros H. unfold run12_op. rewrite H. cbv zeta.
    fold hd. change (fun i : nat => (hd i, i)) with dg_of.
    destruct (find_missing _ _ _ _) as [asked res]. reflexivity.
  Qed.

  Lemma run12_op_other sel nb op :
    sx_Z (sx_nth op 0) <> 3 ->
    run12_op sel nb digests op =
      let k := sx_Z (sx_nth op 0) in
      let d := sx_nat (sx_nth op 1) in
      let fault := sx_bool (sx_nth op (if Z.eqb k 2 then 3 else 2)%nat) in
      let i := route sel (dg_of d) in
      L [of_nat i; of_nat d; A (if fault then 14 else 0); if fault then L [of_nat i] else L []].
  Proof.
    intros H. unfold run12_op. fold hd. change (fun i : nat => (hd i, i)) with dg_of.
    generalize dependent (sx_Z (sx_nth op 0)). intros z Hz.
    destruct z as [|[[p|p|]|p|]|p]; try reflexivity. contradiction.
  Qed.

  Lemma op_routes_fm op o :
    sx_Z (sx_nth op 0) = 3 ->
    op_routes digests op o =
      concat (map (fun a => map (fun d => (hd d, sx_nat (sx_nth a 0))) (sx_nats (sx_nth a 1)))
                  (sx_list (sx_nth o 0))).
  Proof. intros H. unfold op_routes. rewrite H. reflexivity. Qed.

  Lemma op_routes_other op o :
    sx_Z (sx_nth op 0) <> 3 ->
    op_routes digests op o = [(hd (sx_nat (sx_nth op 1)), sx_nat (sx_nth o 0))].
  Proof. intros H. unfold op_routes. rewrite (Zmatch3 _ _ _ H). reflexivity. Qed.

  Lemma op_routes_ext op o o' : sx_nth o 0 = sx_nth o' 0 -> op_routes digests op o = op_routes digests op o'.
  Proof.
    intros H. destruct (Z.eq_dec (sx_Z (sx_nth op 0)) 3) as [E|E].
    - rewrite !(op_routes_fm _ _ E), H. reflexivity.
    - rewrite !(op_routes_other _ _ E), H. reflexivity.
  Qed.

  Lemma fm_union_ok_other op o : sx_Z (sx_nth op 0) <> 3 -> fm_union_ok op o = true.
  Proof. intros H. unfold fm_union_ok. rewrite (Zmatch3 _ _ _ H). reflexivity. Qed.

  Lemma fm_union_ok_failed op o : sx_Z (sx_nth (sx_nth o 1) 0) = 14 -> fm_union_ok op o = true.
  Proof.
    intros H. destruct (Z.eq_dec (sx_Z (sx_nth op 0)) 3) as [E|E]; [|apply fm_union_ok_other; exact E].
    unfold fm_union_ok. rewrite E, H. reflexivity.
  Qed.

  Lemma fm_union_ok_fm op o asked r :
    sx_Z (sx_nth op 0) = 3 -> sx_nth o 0 = L asked -> sx_nth o 1 = L [A 0; r] ->
    fm_union_ok op o =
      sx_eqb (of_nats (dedup_sort (concat (map (fun a => filter mod3 (sx_nats (sx_nth a 1))) asked)))) r
      && sx_eqb (of_nats (dedup_sort (concat (map (fun a => sx_nats (sx_nth a 1)) asked))))
                (of_nats (dedup_sort (sx_nats (sx_nth op 1)))).
  Proof. intros E E0 E1. unfold fm_union_ok. rewrite E, E1, E0. reflexivity. Qed.

  (** an observation of one operation is good when every route it reports is
      the selector's and its FindMissing answer is the union *)
  Definition good_op (sel : list shard) (op o : sx) : Prop :=
    (forall k v, In (k, v) (op_routes digests op o) -> v = get_shard sel k) /\ fm_union_ok op o = true.

  Lemma map_enc_asked_parts (f : list nat -> list nat) asked :
    map (fun a => f (sx_nats (sx_nth a 1))) (map enc_asked asked) = map (fun '(i, p) => f p) asked.
  Proof.
    rewrite map_map. apply map_ext. intros [i p]. unfold enc_asked, sx_nth. cbn [sx_list nth].
    rewrite sx_nats_of_nats. reflexivity.
  Qed.

  Lemma map_enc_asked_snd asked :
    map (fun a => sx_nats (sx_nth a 1)) (map enc_asked asked) = map snd asked.
  Proof. exact (map_enc_asked_parts (fun p => p) asked). Qed.

  Lemma fm_res_some sel nb faults ds r :
    snd (find_missing sel nb (fm_oracle faults) ds) = Some r ->
    r = dedup_sort (concat (map (fun '(i, p) => filter mod3 p) (fst (find_missing sel nb (fm_oracle faults) ds)))).
  Proof.
    rewrite find_missing_result. generalize (fst (find_missing sel nb (fm_oracle faults) ds)).
    intros asked H. apply fm_collect_some in H. destruct H as [Hnone ->].
    rewrite map_map. f_equal. f_equal. apply map_ext_in. intros [i p] Hip.
    destruct (fm_oracle faults i p) as [m|] eqn:Ho.
    - unfold fm_oracle in Ho. destruct (nth i faults false); [discriminate|]. injection Ho as <-. reflexivity.
    - destruct Hnone. apply in_map_iff. exists (i, p). split; [exact Ho|exact Hip].
  Qed.

  Lemma good_model cfg sel op :
    new_selector cfg = Some sel -> good_op sel op (run12_op sel (length cfg) digests op).
  Proof.
    intros Hs. destruct (Z.eq_dec (sx_Z (sx_nth op 0)) 3) as [E|E].
    - rewrite (run12_op_fm _ _ _ E). cbv zeta.
      set (reqs := sx_nats (sx_nth op 1)). set (ds := map dg_of reqs).
      set (faults := map sx_bool (sx_list (sx_nth op 2))).
      set (fm := find_missing sel (length cfg) (fm_oracle faults) ds).
      assert (Hown : forall i p x, In (i, p) (fst fm) -> In x p -> In x reqs /\ get_shard sel (hd x) = i).
      { intros i p x Hip Hx.
        destruct (fm_asks_own_only _ _ _ _ _ _ _ Hip Hx) as (d & Hd & Hsnd & Hr).
        apply in_map_iff in Hd. destruct Hd as (y & <- & Hy). cbn [snd dg_of] in Hsnd. subst y.
        split; [exact Hy|exact Hr]. }
      split.
      + intros k v Hin. rewrite (op_routes_fm _ _ E) in Hin.
        unfold sx_nth at 3 in Hin. cbn [sx_list nth] in Hin.
        apply in_concat in Hin. destruct Hin as (l & Hl & Hin).
        apply in_map_iff in Hl. destruct Hl as (a & <- & Ha).
        apply in_map_iff in Ha. destruct Ha as ([i p] & <- & Hip).
        unfold enc_asked, sx_nth in Hin. cbn [sx_list nth] in Hin.
        rewrite sx_nats_of_nats, sx_nat_of_nat in Hin.
        apply in_map_iff in Hin. destruct Hin as (x & Heq & Hx). inversion Heq; subst k v.
        symmetry. apply (Hown i p x Hip Hx).
      + destruct (snd fm) as [r|] eqn:Hres; [|apply fm_union_ok_failed; reflexivity].
        rewrite (fm_union_ok_fm op _ (map enc_asked (fst fm)) (of_nats r) E) by reflexivity.
        rewrite (map_enc_asked_parts (filter mod3)), map_enc_asked_snd. fold reqs.
        pose proof (fm_res_some _ _ _ _ _ Hres) as Hrr. fold fm in Hrr.
        rewrite <- Hrr, sx_eqb_refl. cbn [andb].
        apply sx_eqb_iff. apply (f_equal of_nats). apply dedup_sort_ext. intros x. rewrite in_concat. split.
        * intros (l & Hl & Hx). apply in_map_iff in Hl. destruct Hl as ([i p] & <- & Hip).
          cbn [snd] in Hx. apply (Hown i p x Hip Hx).
        * intros Hx.
          assert (Hd : In (dg_of x) ds) by (apply in_map; exact Hx).
          assert (Hr : (route sel (dg_of x) < length cfg)%nat) by (apply get_shard_in_range; exact Hs).
          destruct (fm_every_digest_asked sel (length cfg) (fm_oracle faults) ds _ Hd Hr) as (p & Hp & Hxp).
          exists p. split; [|exact Hxp]. apply in_map_iff. exists (route sel (dg_of x), p). split; [reflexivity|exact Hp].
    - rewrite (run12_op_other _ _ _ E). cbv zeta. split; [|apply fm_union_ok_other; exact E].
      intros k v Hin. rewrite (op_routes_other _ _ E) in Hin. unfold sx_nth at 2 in Hin. cbn [sx_list nth] in Hin.
      rewrite sx_nat_of_nat in Hin. destruct Hin as [Hin|[]]. inversion Hin. reflexivity.
  Qed.

  Lemma good_agree sel op m o : agree12_op m o = true -> good_op sel op m -> good_op sel op o.
  Proof.
    intros Ha [G1 G2].
    destruct (agree12_op_cases m o Ha) as [<-|(failing & named & _ & Eo & H0 & _)]; [split; assumption|].
    split.
    - intros k v Hin. rewrite <- (op_routes_ext op m o H0) in Hin. apply G1. exact Hin.
    - apply fm_union_ok_failed. rewrite Eo. reflexivity.
  Qed.

  Lemma good_all cfg sel ops os :
    new_selector cfg = Some sel ->
    all2 agree12_op (map (run12_op sel (length cfg) digests) ops) os = true ->
    forall op o, In (op, o) (combine ops os) -> good_op sel op o.
  Proof.
    intros Hs H op o Hin. apply (good_agree sel op (run12_op sel (length cfg) digests op) o).
    - exact (all2_pointwise agree12_op _ ops os H op o Hin).
    - apply good_model. exact Hs.
  Qed.

  Lemma routes_functional (f : N -> nat) l :
    (forall k v, In (k, v) l -> v = f k) -> routes_conflict l = false.
  Proof.
    induction l as [|[k v] t IH]; intros H; [reflexivity|]. cbn [routes_conflict].
    rewrite IH by (intros k' v' Hin; apply H; right; exact Hin). rewrite orb_false_r.
    assert (Hv : v = f k) by (apply H; left; reflexivity).
    assert (Ht : forall k' v', In (k', v') t -> v' = f k') by (intros k' v' Hin; apply H; right; exact Hin).
    clear H IH. induction t as [|[k' v'] t IHt]; [reflexivity|]. cbn [assoc_conflict].
    rewrite IHt by (intros k2 v2 Hin; apply Ht; right; exact Hin). rewrite orb_false_r.
    destruct (N.eqb k k') eqn:E; [|reflexivity]. apply N.eqb_eq in E. subst k'.
    rewrite (Ht k v' (or_introl eq_refl)), Hv, Nat.eqb_refl. reflexivity.
  Qed.
End BA.

Section NAMED.
  Variable digests : sx.
  Let hd (i : nat) : N := sx_N (sx_nth (sx_nth digests i) 0).
  Let dg_of (i : nat) : dg := (hd i, i).

  Lemma fm_none_has_faulted sel nb faults ds :
    snd (find_missing sel nb (fm_oracle faults) ds) = None ->
    filter (fun '(i, _) => nth i faults false) (fst (find_missing sel nb (fm_oracle faults) ds)) <> [].
  Proof.
    rewrite find_missing_result, fm_collect_none. intros Hin.
    apply in_map_iff in Hin. destruct Hin as ([i p] & Ho & Hip).
    assert (Hf : In (i, p) (filter (fun '(i, _) => nth i faults false)
                                 (fst (find_missing sel nb (fm_oracle faults) ds)))).
    { apply filter_In. split; [exact Hip|]. unfold fm_oracle in Ho.
      destruct (nth i faults false); [reflexivity|discriminate]. }
    intros E. rewrite E in Hf. destruct Hf.
  Qed.

  Lemma err_named_ok_fm op o c names :
    sx_Z (sx_nth op 0) = 3 -> sx_nth o 1 = L [A c; L names] ->
    err_named_ok op o =
      if Z.eqb c 0 then true
      else negb (match names with [] => true | _ => false end)
           && forallb (fun n => nth (sx_nat n) (map sx_bool (sx_list (sx_nth op 2))) false) names.
  Proof. intros E Eo. unfold err_named_ok. rewrite E, Eo. reflexivity. Qed.

  Lemma err_named_ok_single op a b c e :
    sx_Z (sx_nth op 0) <> 3 ->
    err_named_ok op (L [a; b; A c; e]) = if Z.eqb c 0 then true else sx_eqb e (L [a]).
  Proof. intros E. unfold err_named_ok. apply Z.eqb_neq in E. rewrite E. reflexivity. Qed.

  Lemma named_model sel nb op : err_named_ok op (run12_op sel nb digests op) = true.
  Proof.
    destruct (Z.eq_dec (sx_Z (sx_nth op 0)) 3) as [E|E].
    - rewrite (run12_op_fm digests _ _ _ E). cbv zeta.
      set (faults := map sx_bool (sx_list (sx_nth op 2))).
      set (fm := find_missing sel nb (fm_oracle faults) _).
      destruct (snd fm) as [r|] eqn:Hres; erewrite (err_named_ok_fm op _ _ _ E) by reflexivity; [reflexivity|].
      cbn [Z.eqb]. fold faults.
      pose proof (fm_none_has_faulted _ _ _ _ Hres) as Hne. fold fm in Hne.
      apply andb_true_iff. split.
      + destruct (filter _ (fst fm)); [contradiction|reflexivity].
      + apply forallb_forall. intros n Hn. apply in_map_iff in Hn. destruct Hn as (x & <- & Hx).
        rewrite sx_nat_of_nat. apply in_map_iff in Hx. destruct Hx as ([i q] & <- & Hiq).
        apply filter_In in Hiq. exact (proj2 Hiq).
    - rewrite (run12_op_other digests _ _ _ E). cbv zeta. rewrite (err_named_ok_single _ _ _ _ _ E).
      destruct (sx_bool _); [apply sx_eqb_refl|reflexivity].
  Qed.

  Lemma named_good sel nb op o :
    agree12_op (run12_op sel nb digests op) o = true -> err_named_ok op o = true.
  Proof.
    intros Ha. destruct (agree12_op_cases _ _ Ha) as [<-|(failing & named & Em & Eo & _ & Hin)]; [apply named_model|].
    pose proof (named_model sel nb op) as Hm.
    destruct (Z.eq_dec (sx_Z (sx_nth op 0)) 3) as [E|E].
    - rewrite (err_named_ok_fm op _ 14 failing E Em) in Hm. rewrite (err_named_ok_fm op o 14 [named] E Eo).
      cbn [Z.eqb] in *. apply andb_true_iff in Hm. destruct Hm as [_ Hall].
      cbn [negb forallb andb]. rewrite andb_true_r.
      rewrite forallb_forall in Hall. apply Hall. exact Hin.
    - rewrite (run12_op_other digests _ _ _ E) in Em. cbv zeta in Em. discriminate Em.
  Qed.

  Lemma named_all sel nb ops os :
    all2 agree12_op (map (run12_op sel nb digests) ops) os = true ->
    forall op o, In (op, o) (combine ops os) -> err_named_ok op o = true.
  Proof.
    intros H op o Hin. apply (named_good sel nb).
    exact (all2_pointwise agree12_op _ ops os H op o Hin).
  Qed.
End NAMED.

(** the judge's notion of agreement in blob-access cases (literally the [ag]
    of [judge12], see [judge12_ba_fields]) *)
Definition agree12_ba (inp obs : sx) : bool :=
  let m := run12_ba inp in
  if is_reject m then sx_eqb m obs else all2 agree12_op (sx_list m) (sx_list obs).

Lemma all2_refl (f : sx -> sx -> bool) l : (forall x, f x x = true) -> all2 f l l = true.
Proof. intros H. induction l as [|a l IH]; [reflexivity|]. cbn. rewrite H, IH. reflexivity. Qed.

Lemma agree12_ba_refl inp : agree12_ba inp (run12_ba inp) = true.
Proof.
  unfold agree12_ba. cbv zeta. destruct (is_reject (run12_ba inp)); [apply sx_eqb_refl|].
  apply all2_refl. apply agree12_op_refl.
Qed.

Theorem mon12_ba_silent_on_allowed : forall inp obs, agree12_ba inp obs = true -> mon12_ba inp obs = [].
Proof.
  intros inp obs Hag. unfold mon12_ba. destruct (is_reject obs) eqn:Hrej; [reflexivity|].
  unfold agree12_ba in Hag. cbv zeta in Hag. unfold run12_ba in Hag.
  set (cfg := cfg_of (sx_nth inp 1)) in *.
  destruct (new_selector cfg) as [sel|] eqn:Hs.
  2:{ cbn [is_reject Z.eqb] in Hag. apply sx_eqb_eq in Hag. subst obs. discriminate. }
  set (digests := sx_nth inp 2) in *. set (ops := sx_list (sx_nth inp 3)) in *.
  destruct (is_reject (L (map (run12_op sel (length cfg) digests) ops))) eqn:Hr.
  { apply sx_eqb_eq in Hag. subst obs. rewrite Hr in Hrej. discriminate. }
  cbn [sx_list] in Hag.
  pose proof (good_all digests cfg sel ops (sx_list obs) Hs Hag) as Hgood.
  pose proof (named_all digests sel (length cfg) ops (sx_list obs) Hag) as Hnamed.
  rewrite (routes_functional (get_shard sel)).
  2:{ intros k v Hin. apply in_concat in Hin. destruct Hin as (l & Hl & Hin).
      apply in_map_iff in Hl. destruct Hl as ([op o] & <- & Hp).
      apply (proj1 (Hgood op o Hp)). exact Hin. }
  apply two_checks_silent; apply forallb_forall; intros [op o] Hp.
  - apply (proj2 (Hgood op o Hp)).
  - apply (Hnamed op o Hp).
Qed.

Theorem mon12_ba_silent : forall inp, mon12_ba inp (run12_ba inp) = [].
Proof. intros inp. apply mon12_ba_silent_on_allowed. apply agree12_ba_refl. Qed.

Lemma judge12_ba_fields inp obs :
  sx_Z (sx_nth inp 0) <> 0 ->
  judged_agree (judge12 inp obs) = agree12_ba inp obs /\
  judged_violates (judge12 inp obs) = negb (match mon12_ba inp obs with [] => true | _ => false end).
Proof.
  intros H. unfold judge12. destruct (sx_Z (sx_nth inp 0)); [contradiction| |]; cbv zeta; apply verdict_fields.
Qed.

Theorem judge12_agree_not_violates : forall inp obs,
  (sx_Z (sx_nth inp 0) = 0 -> wf12_sel inp) ->
  judged_agree (judge12 inp obs) = true -> judged_violates (judge12 inp obs) = false.
Proof.
  intros inp obs Hwf. destruct (Z.eq_dec (sx_Z (sx_nth inp 0)) 0) as [E|E].
  - unfold judge12. rewrite E. apply judge_det_agree_not_violates. exact (mon12_sel_silent inp (Hwf E)).
  - destruct (judge12_ba_fields inp obs E) as [-> ->]. intros Ha.
    rewrite (mon12_ba_silent_on_allowed inp obs Ha). reflexivity.
Qed.

(** the hypothesis is needed: with zero weights the model's answers for two
    listings of the same two shards differ, and clause 1 fires.  (The harness
    executes such an input — it only refuses weights above 2^32-1 — but the
    generators never produce weight 0, and the property text excludes it.) *)
Example mon12_sel_needs_nonzero_weights :
  let inp := L [A 0; L [L [A 0; A 5; A 0]; L [A 1; A 9; A 0]]; L [L [A 0; A 1]; L [A 1; A 0]]; L [A 1]] in
  mon12_sel inp (run12_sel inp) = [1].
Proof. vm_compute. reflexivity. Qed.

(** an input with a hash and a key hash beyond 64 bits satisfies [wf12_sel] *)
Example wf12_sel_example :
  wf12_sel (L [A 0; L [L [A 0; A 5; A 1]; L [A 1; A (2 ^ 70); A 4294967295]; L [A 2; A 5; A 0]];
               L [L [A 0; A 1]; L [A 1; A 0]; L [A 0; A 2]]; L [A 1; A (2 ^ 64)]]).
Proof.
  intros v Hv Hsel p Hp. vm_compute in Hv.
  destruct Hv as [<-|[<-|[<-|[]]]]; try (vm_compute in Hsel; congruence);
    vm_compute in Hp; destruct Hp as [<-|[<-|[]]]; vm_compute; discriminate.
Qed.
