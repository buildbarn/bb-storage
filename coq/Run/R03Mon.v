(** C03, monitor versus model — part 4: the bookkeeping of the monitor of Run/R03.v is SOUND
    with respect to the model, on EVERY history that the judge's replay accepts (every
    interleaving, every I/O outcome, every allocator answer — the judge resolves the
    nondeterminism from the observation, so "every accepted history" is "every resolution").

    Run/R03.v has no generative [run03 inp]: the model side of the judge is trace validation
    ([replay03]).  The monitor state [mst] decides from the entries of a history
      (a) [m_final]  : "the final synchronisation has begun" (clauses 2, 3),
      (b) [m_exited] : "the shutdown was graceful" (clause 1),
      (c) [m_lastput < m_commit] : "a commit completed that began after the last
                       BlockList.Put / finalizer" (clause 4),
    and, at the end of an incarnation ([mon_exit]), keeps its list of acknowledged copies as
    OBLIGATIONS for the read-back of the next incarnation iff (b) or (c).
    The theorems below: on every accepted history
      (a) implies that the model's list is closed for writing — hence ([refused_not_lost] of Props/C03.v,
          [replay_tag4_closed]) every finalizer entry accepted afterwards is a refusal;
      (b) implies that the model's put loop has exited;
      (b) or (c) implies that the model's newest completed state write — the state on the
          medium, the one the next incarnation is restored from — has EVERY acknowledgement the
          model ever made in its cohort and covers each of them ([covers]: the block was rotated
          out before the snapshot, or NewPersistentBlockList lists its epoch seed, its block and a
          write cursor at or above the object's end; [record_resolves_after_restart] of Props/C03.v).
    So the monitor never imposes a durability obligation (clauses 1, 4) nor a refusal obligation
    (clauses 2, 3) that the model does not guarantee.  What is NOT covered (no model in
    Persist/*.v): the store level — which op result (entry 30) acknowledges which finalizer,
    which key a block-list Put belongs to, and the read-back (entry 32) through the
    key-location map and the data device. *)
From Coq Require Import List NArith ZArith Bool Arith Lia.
From BBS Require Import Common.Sx Persist.PBL Persist.PBLProofs Persist.Syncer Persist.SyncerProofs
  Persist.Shutdown Persist.ShutdownProofs Persist.ShutdownOrder Run.R03 Run.R03MonGhost Run.R03MonFields
  Run.R03MonReplay.
Import ListNotations.
Local Open Scope nat_scope.

Record Jc (pos lastput sstart sdone commit : nat) (wcover : list (Z * nat)) (final exited : bool)
          (s : sys) (gx : gsys) : Prop := mkJc {
  j_b1 : sdone <= sstart;
  j_b2 : sstart <= pos;
  j_b3 : commit <= sdone;
  j_b4 : forall z, assoc_Z z wcover <= sdone;
  j_b5 : lastput <= pos;
  (* no Put/finalizer since the latest NotifySyncStarting: its cohort is every ack *)
  j_p1 : lastput < sstart -> g_syncing (gs_g gx) = g_acks (gs_g gx);
  (* ... since the start of the latest completed sync *)
  j_p2 : lastput < sdone -> g_synced (gs_g gx) = g_acks (gs_g gx);
  (* ... since the start of the sync whose completion preceded a loop's pending snapshot *)
  j_p3 : forall z w, get_pend gx (tid_of z) = Some w -> lastput < assoc_Z z wcover ->
                     gw_cohort w = g_acks (gs_g gx);
  (* ... since the start of a commit that ran to completion *)
  j_p4 : lastput < commit -> exists w, In w (gs_writes gx) /\ gw_cohort w = g_acks (gs_g gx);
  j_f : final = true -> closedForWriting (s_pbl s) = true;
  j_e : exited = true -> s_p s = PExit
}.

Definition J (m : mst) : sys -> gsys -> Prop :=
  Jc (m_pos m) (m_lastput m) (m_sync_start m) (m_sync_done m) (m_commit m) (m_wcover m) (m_final m) (m_exited m).

Lemma G_inv1 o s gx : G o s gx -> inv1 s.
Proof. intros [[[[I1 _] _] _] _]. exact I1. Qed.

Lemma Jc_step cfg pos lp ss sd cm wc fi ex s e s1 gx : inv1 s -> notfin e -> step cfg s e = Some (Ok s1) ->
  Jc pos lp ss sd cm wc fi ex s gx -> Jc pos lp ss sd cm wc fi ex s1 (gstep s e s1 gx).
Proof.
  intros I1 Hn Hs [B1 B2 B3 B4 B5 P1 P2 P3 P4 F E].
  destruct (gstep_gsh cfg s e s1 gx Hs) as [S1 [S2 [S3 [S4 S5]]]].
  pose proof (gstep_acks_same s e s1 gx Hn) as Ha.
  constructor; auto.
  - intros L. destruct S1 as [S1|S1]; [|exact S1]. rewrite S1, Ha. auto.
  - intros L. rewrite Ha. destruct S2 as [S2|S2]; rewrite S2; [auto|]. apply P1. lia.
  - intros z w Hp L. rewrite Ha. destruct (S3 _ _ Hp) as [Hold|[Hc _]]; [eapply P3; eauto|].
    rewrite Hc. apply P2. specialize (B4 z). lia.
  - intros L. destruct (P4 L) as [w [Hin Hc]]. exists w. split; [apply S5; exact Hin|]. rewrite Ha. exact Hc.
  - intros C. eapply step_closed_mono; eauto.
  - intros C. eapply step_pexit; eauto.
Qed.

Lemma Jc_gpath o cfg pos lp ss sd cm wc fi ex s gx s' gx' : G o s gx -> gpath cfg (fun _ e => notfin e) s gx s' gx' ->
  Jc pos lp ss sd cm wc fi ex s gx -> Jc pos lp ss sd cm wc fi ex s' gx'.
Proof.
  intros Hg Hp. induction Hp as [|s x e s1 s' x' Hn Hs Hp IH]; [auto|]. intros Hj.
  apply IH; [eapply G_step; eauto|]. eapply Jc_step; eauto. eapply G_inv1; eauto.
Qed.

Lemma gpath_acks_same cfg s gx s' gx' : gpath cfg (fun _ e => notfin e) s gx s' gx' -> g_acks (gs_g gx') = g_acks (gs_g gx).
Proof. induction 1 as [|s x e s1 s' x' Hn Hs Hp IH]; [reflexivity|]. rewrite IH. apply gstep_acks_same. exact Hn. Qed.

Lemma neqb z k : z <> k -> (z =? k)%Z = false.
Proof. apply Z.eqb_neq. Qed.

Lemma entry_inv o cfg bs cfgsx objs ops m x e x' gx :
  G o (x_sys x) gx -> J m (x_sys x) gx -> replay_entry cfg bs x e = Some x' ->
  exists gx', gpath cfg (allowed e) (x_sys x) gx (x_sys x') gx' /\ G o (x_sys x') gx' /\
              J (mon_entry cfgsx objs ops m e) (x_sys x') gx' /\ post cfg bs e x gx x' gx'.
Proof.
  intros Hg Hj H.
  destruct (replay_entry_sound cfg bs x e x' gx (proj2 Hg) H) as [gx' [Hp Hpost]].
  assert (Hg' : G o (x_sys x') gx') by (eapply G_gpath; eauto).
  exists gx'. split; [exact Hp|]. split; [exact Hg'|]. split; [|exact Hpost].
  destruct (mon_entry_fields cfgsx objs ops m e) as [F1 [F2 [F3 [F4 [F5 [F6 [F7 [F8 _]]]]]]]].
  unfold J. rewrite F1, F2, F3, F4, F5, F6, F7, F8. clear F1 F2 F3 F4 F5 F6 F7 F8.
  destruct (Z.eq_dec (tag e) 4) as [E4|N4].
  { (* a finalizer, one step of the model: every "no Put since" premise becomes false *)
    rewrite E4. cbn [Z.eqb Pos.eqb orb andb]. rewrite !Bool.orb_false_r.
    destruct Hj as [B1 B2 B3 B4 B5 P1 P2 P3 P4 F E].
    destruct Hpost as [_ [_ [_ [_ [_ [_ [_ [_ Q]]]]]]]]. destruct (Q (or_intror (or_intror (or_intror E4)))) as [Hs _].
    constructor; auto; try lia.
    - intros z w _ L. specialize (B4 z). lia.
    - intros C. exact (step_closed_mono _ _ _ _ Hs (F C)).
    - intros C. exact (step_pexit _ _ _ _ (G_inv1 _ _ _ Hg) Hs (E C)). }
  assert (Hp' : gpath cfg (fun _ ev => notfin ev) (x_sys x) gx (x_sys x') gx').
  { eapply gpath_weaken; [|exact Hp]. intros s0 ev [[Hc|Hc] _]; [contradiction|exact Hc]. }
  (* no finalizer on the path: the invariant is carried along it, then the entry's own bookkeeping is added *)
  destruct (Jc_gpath _ _ _ _ _ _ _ _ _ _ _ _ _ _ Hg Hp' Hj) as [B1 B2 B3 B4 B5 P1 P2 P3 P4 F E'].
  pose proof (gpath_acks_same _ _ _ _ _ Hp') as Hacks.
  destruct Hpost as [Q8a [Q8b [Q9 [Q6 [Q13 [_ [Q18 [_ _]]]]]]]].
  rewrite (neqb _ _ N4), Bool.orb_false_r.
  destruct (Z.eq_dec (tag e) 3) as [E|N3].
  { rewrite E. cbn [Z.eqb Pos.eqb orb andb]. rewrite !Bool.orb_false_r.
    constructor; auto; try lia.
    intros z w _ L. specialize (B4 z). lia. }
  rewrite (neqb _ _ N3).
  destruct (Z.eq_dec (tag e) 6) as [E|N6].
  { rewrite E. cbn [Z.eqb Pos.eqb orb andb]. rewrite !Bool.orb_false_r.
    destruct (Q6 E) as [w0 [Hw0 Hc0]].
    constructor; auto; try lia.
    - intros z. cbn [assoc_Z]. destruct (Z.eqb z _); [lia|apply B4].
    - intros z w Hw. cbn [assoc_Z]. destruct (Z.eqb_spec z (sx_Z (sx_nth e 1))) as [->|Hne]; [|apply P3; exact Hw].
      intros L. rewrite Hw0 in Hw. inversion Hw; subst w0. rewrite Hc0. apply P2. exact L. }
  rewrite (neqb _ _ N6).
  destruct (Z.eq_dec (tag e) 8) as [E|N8].
  { rewrite E. cbn [Z.eqb Pos.eqb orb andb]. rewrite !Bool.orb_false_r.
    constructor; auto; try lia.
    - intros _. destruct (sx_bool (sx_nth e 1)) eqn:B; [|apply Q8a; auto].
      destruct Hg' as [[[_ [_ [Hfi _]]] _] _]. destruct (Hfi (Q8b E eq_refl)) as [Hsy _]. exact Hsy.
    - intros C. apply Bool.orb_true_iff in C. destruct C as [C|C]; [auto|apply Q8b; auto]. }
  rewrite (neqb _ _ N8).
  destruct (Z.eq_dec (tag e) 9) as [E|N9].
  { rewrite E. cbn [Z.eqb Pos.eqb orb andb]. rewrite !Bool.orb_false_r.
    destruct (m_sync_ok m); [|constructor; auto].
    constructor; auto; try lia.
    - intros z. specialize (B4 z). lia.
    - intros L. rewrite (Q9 E), Hacks. apply (j_p1 _ _ _ _ _ _ _ _ _ _ Hj). exact L. }
  rewrite (neqb _ _ N9).
  destruct (Z.eq_dec (tag e) 13) as [E|N13].
  { rewrite E. cbn [Z.eqb Pos.eqb orb andb]. rewrite !Bool.orb_false_r.
    destruct (sx_bool (sx_nth e 2)) eqn:B; [|constructor; auto].
    destruct (Q13 E eq_refl) as [w [Hw [Hws _]]].
    constructor; auto; try lia.
    - specialize (B4 (sx_Z (sx_nth e 1))). lia.
    - intros L. destruct (Nat.lt_ge_cases (m_lastput m) (m_commit m)) as [Lc|Lc]; [auto|].
      exists w. split; [rewrite Hws; left; reflexivity|]. rewrite Hacks.
      apply (j_p3 _ _ _ _ _ _ _ _ _ _ Hj _ _ Hw). lia. }
  rewrite (neqb _ _ N13).
  destruct (Z.eq_dec (tag e) 18) as [E|N18].
  { rewrite E. cbn [Z.eqb Pos.eqb orb andb]. rewrite !Bool.orb_true_r.
    constructor; auto; try lia.
    intros _. destruct Hg' as [[[_ [_ [_ Hpc]]] _] _]. unfold pcinv in Hpc. rewrite (Q18 E) in Hpc. exact Hpc. }
  rewrite (neqb _ _ N18). cbn [andb]. rewrite !Bool.orb_false_r.
  constructor; auto; try lia.
Qed.

(** the state on the medium ([x_state], what the next incarnation is restored from) is the state of the
    model's newest completed write *)
Definition K (st0 : pstate) (x : xst) (gx : gsys) : Prop :=
  x_state x = match gs_writes gx with w :: _ => gw_state w | [] => st0 end.

Lemma entry_K cfg bs st0 e x gx x' gx' : K st0 x gx -> gpath cfg (allowed e) (x_sys x) gx (x_sys x') gx' ->
  post cfg bs e x gx x' gx' -> K st0 x' gx'.
Proof.
  intros Hk Hp [_ [_ [_ [_ [Q13 [Q13f [_ [Qs _]]]]]]]]. unfold K in *.
  destruct (Z.eq_dec (tag e) 13) as [E|N].
  - destruct (sx_bool (sx_nth e 2)) eqn:B.
    + destruct (Q13 E eq_refl) as [w [_ [Hw Hs]]]. rewrite Hw. exact Hs.
    + destruct (Q13f E eq_refl) as [Hs Hw]. rewrite Hs, Hw. exact Hk.
  - rewrite (Qs N).
    assert (Hw : gs_writes gx' = gs_writes gx).
    { apply (gpath_writes_same cfg (x_sys x) gx (x_sys x') gx'). eapply gpath_weaken; [|exact Hp].
      intros s0 ev [_ [[Hc|Hc] _]]; [contradiction|exact Hc]. }
    rewrite Hw. exact Hk.
Qed.

Lemma entries_inv o cfg bs cfgsx objs ops st0 : forall es n m x x1 gx,
  G o (x_sys x) gx -> J m (x_sys x) gx -> K st0 x gx -> replay_entries cfg bs n x es = (x1, []) ->
  exists gx1, gpath cfg (fun _ _ => True) (x_sys x) gx (x_sys x1) gx1 /\ G o (x_sys x1) gx1 /\
              J (fold_left (mon_entry cfgsx objs ops) es m) (x_sys x1) gx1 /\ K st0 x1 gx1.
Proof.
  induction es as [|e es IH]; intros n m x x1 gx Hg Hj Hk H; cbn in H.
  - injection H as <-. exists gx. split; [constructor|auto].
  - destruct (replay_entry cfg bs x e) as [x'|] eqn:R; [|discriminate].
    destruct (entry_inv o cfg bs cfgsx objs ops m x e x' gx Hg Hj R) as [gx' [Hp [Hg' [Hj' Hpost]]]].
    pose proof (entry_K cfg bs st0 e x gx x' gx' Hk Hp Hpost) as Hk'.
    destruct (IH _ _ _ _ _ Hg' Hj' Hk' H) as [gx1 [Hp1 Rest]].
    exists gx1. split; [|exact Rest]. eapply gpath_trans; [|exact Hp1]. eapply gpath_weaken; [|exact Hp]. auto.
Qed.

Lemma exit_covers o st0 m x gx : G o (x_sys x) gx -> J m (x_sys x) gx -> K st0 x gx ->
  m_prev (mon_exit m) <> 0%Z ->
  exists w rest, gs_writes gx = w :: rest /\ x_state x = gw_state w /\ gw_cohort w = g_acks (gs_g gx) /\
                 forall a, In a (g_acks (gs_g gx)) -> covers w a.
Proof.
  intros Hg Hj Hk Hprev.
  assert (Hcov : exists w rest, gs_writes gx = w :: rest /\ gw_cohort w = g_acks (gs_g gx) /\
                   forall a, In a (g_acks (gs_g gx)) -> covers w a).
  { revert Hprev. unfold mon_exit. cbn [m_prev]. destruct (m_exited m) eqn:Ex.
    - intros _. apply (graceful_G o _ _ Hg), (j_e _ _ _ _ _ _ _ _ _ _ Hj Ex).
    - destruct (Nat.ltb_spec (m_lastput m) (m_commit m)) as [L|L]; [|intros Hc; exfalso; apply Hc; reflexivity].
      intros _. destruct (j_p4 _ _ _ _ _ _ _ _ _ _ Hj L) as [w [Hin Hc]]. eapply crash_covers_G; eauto. }
  destruct Hcov as [w [rest [Hw [Hc Hcv]]]]. exists w, rest. unfold K in Hk. rewrite Hw in Hk. auto.
Qed.

Definition m_fresh (m : mst) : Prop :=
  m_pos m = 0 /\ m_lastput m = 0 /\ m_sync_start m = 0 /\ m_sync_done m = 0 /\ m_commit m = 0 /\
  m_wcover m = [] /\ m_final m = false /\ m_exited m = false.

Lemma m_init_fresh : m_fresh m_init.
Proof. unfold m_fresh, m_init. cbn. tauto. Qed.
Lemma mon_exit_fresh m : m_fresh (mon_exit m).
Proof. unfold m_fresh, mon_exit. cbn. tauto. Qed.

Lemma Jc_start pos s gx : Jc pos 0 0 0 0 [] false false s gx.
Proof. constructor; cbn; try lia; discriminate. Qed.

Lemma J_fresh m s gx : m_fresh m -> J m s gx.
Proof.
  intros [E1 [E2 [E3 [E4 [E5 [E6 [E7 E8]]]]]]]. unfold J. rewrite E1, E2, E3, E4, E5, E6, E7, E8. apply Jc_start.
Qed.

Lemma gps_new alloc oldest init p' view :
  get_persistent_state (fst (pbl_new alloc oldest init)) = Ok (p', view) -> p' = fst (pbl_new alloc oldest init).
Proof.
  unfold pbl_new. destruct (restore_blocks alloc init 0) as [[bl sd] ls]. cbn [fst new_nc].
  unfold get_persistent_state. cbn. destruct (gps_loop _ _ _ _); cbn; [|discriminate].
  intros [= <-]. reflexivity.
Qed.

(** the state the replay starts an incarnation in is NewPersistentBlockList + NewPeriodicSyncer *)
Lemma replay_restore_inv c cfg bs st0 now e0 x0 : replay_restore c cfg bs st0 now e0 = Some x0 ->
  let rd := dec_state bs (sx_nth (sx_nth e0 2) 0) (sx_nth (sx_nth e0 2) 1) in
  tag e0 = 0%Z /\ pstate_eqb rd st0 = true /\
  exists alloc, x0 = mkX (init_sys (fst (pbl_new alloc (fst rd) (snd rd))) now) st0 false 0 0 0 0 /\
                snd (pbl_new alloc (fst rd) (snd rd)) = sx_nat (sx_nth e0 1).
Proof.
  unfold replay_restore. cbv zeta. destruct (negb (Z.eqb (tag e0) 0)) eqn:T; cbn [orb]; [discriminate|].
  destruct (pstate_eqb _ st0) eqn:Eq; cbn [negb]; [|discriminate].
  match goal with |- context [pbl_new ?a _ _] => set (al := a) end.
  destruct (pbl_new al _ _) as [p n] eqn:Ep.
  destruct (get_persistent_state p) as [[p' view]|] eqn:Eg; [|discriminate].
  match goal with |- (if ?c then _ else _) = _ -> _ => destruct c eqn:C; [|discriminate] end.
  intros [= <-]. split; [apply Bool.negb_false_iff, Z.eqb_eq in T; exact T|]. split; [reflexivity|].
  exists al. rewrite Ep. cbn [fst snd].
  apply andb_prop in C. destruct C as [C _]. apply andb_prop in C. destruct C as [C _]. apply Nat.eqb_eq in C.
  split; [|exact C]. change p with (fst (p, n)) in Eg. rewrite <- Ep in Eg. apply gps_new in Eg. rewrite Eg, Ep. reflexivity.
Qed.

Lemma replay_restore_init c cfg bs st0 now e0 x0 : replay_restore c cfg bs st0 now e0 = Some x0 ->
  tag e0 = 0%Z /\ x_state x0 = st0 /\
  exists alloc oldest init, x_sys x0 = init_sys (fst (pbl_new alloc oldest init)) now.
Proof.
  intros H. destruct (replay_restore_inv _ _ _ _ _ _ _ H) as [T [_ [al [-> _]]]].
  split; [exact T|]. split; [reflexivity|]. eexists _, _, _. reflexivity.
Qed.

(** the restore entry (tag 0) touches none of the bookkeeping fields *)
Lemma J_restore_entry cfgsx objs ops m e0 s gx : tag e0 = 0%Z -> m_fresh m -> J (mon_entry cfgsx objs ops m e0) s gx.
Proof.
  intros E [E1 [E2 [E3 [E4 [E5 [E6 [E7 E8]]]]]]].
  destruct (mon_entry_fields cfgsx objs ops m e0) as [F1 [F2 [F3 [F4 [F5 [F6 [F7 [F8 _]]]]]]]].
  unfold J. rewrite F1, F2, F3, F4, F5, F6, F7, F8, E. cbn [Z.eqb orb andb].
  rewrite E1, E2, E3, E4, E5, E6, E7, E8. apply Jc_start.
Qed.

Theorem mon03_incarnation_sound c cfg bs st0 now e0 es x0 x1 cfgsx objs ops m0 :
  replay_restore c cfg bs st0 now e0 = Some x0 ->
  replay_entries cfg bs 1 x0 es = (x1, []) ->
  m_fresh m0 ->
  let m1 := fold_left (mon_entry cfgsx objs ops) (e0 :: es) m0 in
  exists alloc oldest init gx,
    greachable cfg alloc oldest init now (x_sys x1) gx /\
    (* the state on the medium at the end of the incarnation *)
    x_state x1 = match gs_writes gx with w :: _ => gw_state w | [] => st0 end /\
    (m_final m1 = true -> closedForWriting (s_pbl (x_sys x1)) = true) /\
    (m_exited m1 = true -> s_p (x_sys x1) = PExit) /\
    (m_prev (mon_exit m1) <> 0%Z ->
       exists w rest, gs_writes gx = w :: rest /\ x_state x1 = gw_state w /\
                      gw_cohort w = g_acks (gs_g gx) /\
                      forall a, In a (g_acks (gs_g gx)) -> covers w a).
Proof.
  intros Hr He Hf m1. subst m1. cbn [fold_left].
  destruct (replay_restore_init _ _ _ _ _ _ _ Hr) as [T0 [Hst [alloc [oldest [init Hx0]]]]].
  pose proof (G_init alloc oldest init now) as Hg0. rewrite <- Hx0 in Hg0.
  pose proof (J_restore_entry cfgsx objs ops m0 e0 (x_sys x0) g0 T0 Hf) as Hj0.
  assert (Hk0 : K st0 x0 g0) by (unfold K; cbn; exact Hst).
  destruct (entries_inv oldest cfg bs cfgsx objs ops st0 es 1 _ x0 x1 g0 Hg0 Hj0 Hk0 He) as [gx [Hp [Hg [Hj Hk]]]].
  assert (R : greachable cfg alloc oldest init now (x_sys x1) gx).
  { eapply greachable_gpath; [|exact Hp]. exists []. cbn. rewrite Hx0. reflexivity. }
  exists alloc, oldest, init, gx. split; [exact R|]. split; [exact Hk|].
  set (m1 := fold_left _ es _) in *.
  split; [apply (j_f _ _ _ _ _ _ _ _ _ _ Hj)|]. split; [apply (j_e _ _ _ _ _ _ _ _ _ _ Hj)|].
  exact (exit_covers oldest st0 m1 x1 gx Hg Hj Hk).
Qed.

(** clause 2/3 side: once the monitor has seen the final synchronisation begin, every finalizer
    entry the replay accepts is a refusal (class 1) or the block's own error (class 3) *)
Theorem mon03_no_ack_after_final o cfg bs m x gx e x' :
  G o (x_sys x) gx -> J m (x_sys x) gx -> m_final m = true ->
  tag e = 4%Z -> replay_entry cfg bs x e = Some x' ->
  sx_Z (sx_nth e 2) = 1%Z \/ sx_Z (sx_nth e 2) = 3%Z.
Proof.
  intros _ Hj Hf E H. exact (replay_tag4_closed cfg bs x e x' E H (j_f _ _ _ _ _ _ _ _ _ _ Hj Hf)).
Qed.
