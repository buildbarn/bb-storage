(** Shared sx interface of the local-store model (C01, C04, C05, C08, C10):
    decoders, the run producing one predicted observation per event, and the
    ghost information the monitors use. *)
From BBS Require Import Common.Sx Store.Model.
Open Scope Z_scope.

Definition dec_cfg (s : sx) : config :=
  {| c_bs := sx_N (sx_nth s 0); c_old := sx_nat (sx_nth s 1); c_cur := sx_nat (sx_nth s 2);
     c_new := sx_nat (sx_nth s 3); c_mutable := sx_bool (sx_nth s 4); c_nblocks := sx_nat (sx_nth s 5);
     c_hier := sx_bool (sx_nth s 6); c_inst_keys := sx_bool (sx_nth s 7); c_validate := sx_bool (sx_nth s 8) |}.

Definition dec_world (inp : sx) : world :=
  {| w_cfg := dec_cfg (sx_nth inp 0);
     w_objs := map sx_Ns (sx_list (sx_nth inp 1));
     w_anc := map sx_nats (sx_list (sx_nth inp 2)) |}.

Definition dec_op (s : sx) : op :=
  let a i := sx_nth s i in
  match sx_Z (a 0%nat) with
  | 1 => OPutStart (sx_nat (a 1%nat)) (sx_nat (a 2%nat)) (sx_nat (a 3%nat))
  | 2 => OPutChunk (sx_nat (a 1%nat)) (sx_Ns (a 2%nat))
  | 3 => OPutEnd (sx_nat (a 1%nat)) (sx_Z (a 2%nat))
  | 4 => OGetOpen (sx_nat (a 1%nat)) (sx_nat (a 2%nat)) (sx_nat (a 3%nat))
  | 5 => OGetConsume (sx_nat (a 1%nat))
  | 6 => OFindMissing (map (fun d => (sx_nat (sx_nth d 0), sx_nat (sx_nth d 1))) (sx_list (a 1%nat)))
  | 7 => OGfcStart (sx_nat (a 1%nat)) (sx_nat (a 2%nat)) (sx_nat (a 3%nat)) (sx_nat (a 4%nat))
  | 8 => OGfcSlice (sx_nat (a 1%nat))
                   (map (fun d => (sx_nat (sx_nth d 0), (sx_N (sx_nth d 1), sx_N (sx_nth d 2)))) (sx_list (a 2%nat)))
  | _ => OCorrupt (sx_nat (a 1%nat)) (sx_N (a 2%nat)) (sx_N (a 3%nat))
  end.
Definition dec_ops (inp : sx) : list op := map dec_op (sx_list (sx_nth inp 3)).

(** states after each event, with the output of the event *)
Fixpoint run_states (w : world) (s : state) (es : list op) : list (state * state * out) :=
  match es with
  | [] => []
  | e :: t => let '(s1, o) := step w s e in (s, s1, o) :: run_states w s1 t
  end.

Definition is_reader (t : thread) : bool :=
  match t with TGet _ _ _ _ _ | TGfc _ _ _ _ _ _ => true | _ => false end.
Definition open_readers (s : state) : nat := length (filter (fun e => is_reader (snd e)) (s_threads s)).
Definition live_blocks (s : state) : nat := (length (s_blocks s) + length (s_zombies s))%nat.

Definition completes_put (e : op) (o : out) : bool :=
  match e, o with
  | OPutStart _ _ _, Done _ _ | OPutChunk _ _, Done _ _ | OPutEnd _ _, Done _ _ => true
  | _, _ => false
  end.

(** observation: (kind code payload negs live open srcclosed writes) *)
Definition enc_obs (c : config) (e : op) (s0 s1 : state) (o : out) : sx :=
  let bd := negb (in_memory c) in
  let tail := [of_nat (s_negs s1 - s_negs s0);
               if bd then of_nat (live_blocks s1) else A (-1);
               if bd then of_nat (open_readers s1) else A (-1);
               if completes_put e o then A 1 else A (-1);
               A (-1)] in
  match o with
  | Done code bytes => L ([A 0; A code; of_Ns bytes] ++ tail)
  | Parked => L ([A 1; A 0; L []] ++ tail)
  | Missing code ds => L ([A 2; A code; of_nats ds] ++ tail)
  | Bad => L [A 3]
  end.

Definition run_store (inp : sx) : sx :=
  let w := dec_world inp in
  let es := dec_ops inp in
  L (map (fun '(e, (s0, s1, o)) => enc_obs (w_cfg w) e s0 s1 o)
         (combine es (run_states w (init_state (w_cfg w)) es))).

(** agreement ignores the last field (number of device writes: observed only) *)
Definition obs_agree (m o : sx) : bool :=
  sx_eqb (L (firstn 7 (sx_list m))) (L (firstn 7 (sx_list o))).
Fixpoint all2b (f : sx -> sx -> bool) (a b : list sx) : bool :=
  match a, b with
  | [], [] => true
  | x :: a', y :: b' => f x y && all2b f a' b'
  | _, _ => false
  end.

Definition judge_store (mon : sx -> sx -> list Z) (inp obs : sx) : sx :=
  let m := run_store inp in
  let v := mon inp obs in
  verdict (all2b obs_agree (sx_list m) (sx_list obs))
          (negb (match v with [] => true | _ => false end)) m (of_Zs v).

(** accessors on observations *)
Definition ob_kind (o : sx) : Z := sx_Z (sx_nth o 0).
Definition ob_code (o : sx) : Z := sx_Z (sx_nth o 1).
Definition ob_bytes (o : sx) : list N := sx_Ns (sx_nth o 2).
Definition ob_negs (o : sx) : Z := sx_Z (sx_nth o 3).
Definition ob_live (o : sx) : Z := sx_Z (sx_nth o 4).
Definition ob_open (o : sx) : Z := sx_Z (sx_nth o 5).
Definition ob_srcclosed (o : sx) : Z := sx_Z (sx_nth o 6).
Definition ob_writes (o : sx) : Z := sx_Z (sx_nth o 7).
Definition ob_ok (o : sx) : bool := Z.eqb (ob_kind o) 0 && Z.eqb (ob_code o) 0.

(** debugging aid (judge "C01D" of ocaml/judges.ml; no check calls it): model observations followed by a
    state summary (old cur new released tbr attempts blocks zombies free). *)
Definition enc_block (b : block) : sx := L [of_nat (b_uid b); of_nat (b_region b); of_N (b_cursor b); of_nat (b_use b)].
Definition enc_state (s : state) : sx :=
  L [of_nat (s_old s); of_nat (s_cur s); of_nat (s_new s); of_N (s_released s); of_N (s_tbr s);
     of_nat (s_attempts s); match s_aidx s with None => A (-1) | Some i => of_nat i end;
     L (map enc_block (s_blocks s)); L (map enc_block (s_zombies s)); of_nats (s_free s)].
Definition judge_store_debug (inp obs : sx) : sx :=
  let w := dec_world inp in
  let es := dec_ops inp in
  verdict false false
    (L (map (fun '(e, (s0, s1, o)) => L [enc_obs (w_cfg w) e s0 s1 o; enc_state s1])
            (combine es (run_states w (init_state (w_cfg w)) es)))) (L []).
