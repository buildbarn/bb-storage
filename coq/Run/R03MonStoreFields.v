(** C03, monitor versus model — the monitor's record of the block list, of the current op, of the
    uploads' Puts and of the acknowledged copies, as equations by entry tag (companion of
    Run/R03MonFields.v). *)
From BBS Require Import Common.Sx Persist.PBL Persist.Syncer Persist.Shutdown Run.R03 Run.R03MonFields.
Open Scope Z_scope.

Definition res_code (x : sx) : Z := sx_Z (sx_nth (sx_nth x 2) 1).
Definition op_slot (m : mst) : nat := sx_nat (sx_nth (m_op m) 1).
Definition is_upres (m : mst) (x : sx) : bool :=
  (tag x =? 30) && (tag (sx_nth x 2) =? 0) && is_upload_op (m_op m).

Lemma mon_entry_store_fields cfg objs ops m x :
  m_live (mon_entry cfg objs ops m x) =
    (if tag x =? 0 then firstn (sx_nat (sx_nth x 1)) (state_locs (sx_nth x 2))
     else if tag x =? 1 then (if sx_Z (sx_nth x 1) =? 0 then m_live m ++ [sx_Z (sx_nth x 2)] else m_live m)
     else if tag x =? 2 then tl (m_live m) else m_live m) /\
  m_op (mon_entry cfg objs ops m x) =
    (if tag x =? 19 then (if sx_Z (sx_nth x 1) <? 0 then L [] else nth (sx_nat (sx_nth x 1)) ops (L []))
     else m_op m) /\
  m_upl (mon_entry cfg objs ops m x) =
    (if tag x =? 3
     then (if tag (m_op m) =? 1
           then (op_slot m, (sx_nat (sx_nth (m_op m) 2), nth_error (m_live m) (sx_nat (sx_nth x 1))))
                :: remove_nat (op_slot m) (m_upl m)
           else m_upl m)
     else if is_upres m x then remove_nat (op_slot m) (m_upl m) else m_upl m) /\
  m_copies (mon_entry cfg objs ops m x) =
    (if tag x =? 2
     then match m_live m with
          | l :: _ => if Nat.eqb (length (m_live m)) (full_count cfg)
                      then filter (fun c => negb (Z.eqb (c_loc c) l)) (m_copies m) else m_copies m
          | [] => m_copies m
          end
     else if is_upres m x
     then (if (res_code x =? 0) && negb (m_final m)
           then match assoc_nat (op_slot m) (m_upl m) with
                | Some (k, Some loc) => mkCopy k loc false :: m_copies m
                | _ => m_copies m
                end
           else m_copies m)
     else m_copies m).
Proof.
  remember (mon_entry cfg objs ops m x) as m' eqn:E. revert m' E.
  unfold mon_entry, is_upres, res_code, op_slot. prj. generalize (tag x) as z. intro z. apply tag_cases.
  15: { intros z' H0 H1 H2 H3 _ _ _ _ _ _ _ H19 H30 _ m' ->. rewrite H0, H1, H2, H3, H19, H30. prj.
        repeat split; reflexivity. }
  13: apply res_cases; [destruct (is_upload_op (m_op m))|..|intros z2 -> _].
  all: intros m' ->; brk; prj; repeat split; reflexivity.
Qed.
