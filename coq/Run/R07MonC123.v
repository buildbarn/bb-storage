(** C07, "the monitor is silent on the model" — part 3: clauses 1 (release
    stall), 2 (minimum interval between schedule times, including the
    "unarmed" extension) and 3 (panic / hang marker) never fire on the model,
    for every input and every hint list.

    The simulation relation [rel1] ties the monitor's bookkeeping to the model
    state after each operation: clock, lastSynchronizationTime, cancellation,
    DataSyncer call counter, "the put loop waits on the interval timer",
    the retry flag, and the number of popped blocks.  Soundness of the
    "unarmed" extension of clause 2 is the right disjunct of the last
    hypothesis of [rel1_finish]: in the model a
    non-retry DataSyncer call while the store is running is entered from
    [PNotify true] only, and [PNotify true] is created only by the expiry of
    the interval timer in the same operation. *)
From Coq Require Import List NArith ZArith Bool Arith Lia.
From BBS Require Import Common.Sx Persist.PBL Persist.PBLProofs Persist.Syncer Persist.SyncerProofs
  Persist.LiveActs Persist.LiveCover Persist.LiveRelease Run.R07 Run.R07MonBase Run.R07MonOps.
Import ListNotations.
Local Open Scope nat_scope.

Definition is_ptimer (p : ppc) : bool := match p with PTimer _ => true | _ => false end.
Definition prev_timer (prev : sx) : bool := Z.eqb (tag prev) 2 && Z.eqb (sx_Z (sx_nth prev 2)) 0.

Lemma enc_p_timer x : prev_timer (enc_p x) = is_ptimer (s_p (x_sys x)).
Proof.
  unfold enc_p. destruct (s_p (x_sys x)) as [| | | | | | | |k w|]; try reflexivity. destruct w; reflexivity.
Qed.

Lemma enc_p_nsy x : is_syncing (x_sys x) = true -> sx_nat (sx_nth (enc_p x) 1) = x_nsy x.
Proof.
  unfold enc_p, is_syncing. destruct (s_p (x_sys x)); try discriminate. intros _.
  change (sx_nth (L [A 3; of_nat (x_nsy x)]) 1) with (of_nat (x_nsy x)). apply sx_nat_of_nat.
Qed.

Lemma new_sync_eq m res x : ms_new_sync m (enc_obs res x) = is_syncing (x_sys x) && (m_nsy m <? x_nsy x).
Proof.
  unfold ms_new_sync. rewrite obs_nth2. destruct (is_syncing (x_sys x)) eqn:E.
  - rewrite (enc_p_nsy _ E). unfold enc_p, is_syncing in *. destruct (s_p (x_sys x)); try discriminate. reflexivity.
  - unfold enc_p, is_syncing in *. destruct (s_p (x_sys x)) as [| | | | | | | |k w|]; try discriminate; try reflexivity.
    destruct w; reflexivity.
Qed.

Lemma bp_len m op o :
  length (ms_popped m op o) <= length (m_popped m) + (if Z.eqb (tag op) 3 && ms_hit o then 1 else 0).
Proof.
  unfold ms_popped, ms_bp. destruct (Z.eqb (tag op) 3 && ms_hit o).
  - destruct (m_blocks m); cbn [snd]; rewrite ?app_length; cbn; lia.
  - destruct (_ && _)%bool; cbn [snd]; lia.
Qed.

Lemma now_same m op : tag op <> 7%Z -> ms_now m op = m_now m.
Proof. intros H. unfold ms_now. destruct (Z.eqb_spec (tag op) 7); [contradiction|reflexivity]. Qed.

Lemma cancelled_same m op : tag op <> 9%Z -> ms_cancelled m op = m_cancelled m.
Proof. intros H. unfold ms_cancelled. destruct (Z.eqb_spec (tag op) 9); [contradiction|apply orb_false_r]. Qed.

Lemma retry_same m op o : tag op <> 5%Z \/ ms_hit o = false -> ms_retry m op o = m_retry m.
Proof. intros H. unfold ms_retry, ms_sync_done. rewrite (code_hit_off _ _ _ H). reflexivity. Qed.

Lemma fired_off m op o : tag op <> 8%Z \/ ms_hit o = false -> ms_fired m op o = false.
Proof. intros H. unfold ms_fired. rewrite (code_hit_off _ _ _ H). reflexivity. Qed.

Lemma check_write_46 w acks k : In k (check_write w acks) -> k = 4%Z \/ k = 6%Z.
Proof.
  unfold check_write. intros H. apply in_flat_map in H. destruct H as [a [_ H]].
  destruct (zmem _ _); [destruct H|]. apply in_app_or in H. destruct H as [H|H].
  - destruct (_ && _)%bool; [destruct H as [H|[]]; auto|destruct H].
  - destruct (_ && _)%bool; [destruct H as [H|[]]; auto|destruct H].
Qed.

Lemma dedupz_in k l : In k (dedupz l) -> In k l.
Proof.
  induction l as [|x r IH]; cbn; [auto|]. destruct (zmem x r).
  - intros H. right. auto.
  - intros [H|H]; auto.
Qed.

Lemma env_ok_code op x e res : env_ok op x e res ->
  (forall t a, e <> EStep t a) /\
  Z.eqb (tag op) 7 = match e with ETick _ => true | _ => false end /\
  Z.eqb (tag op) 9 = match e with ECancel => true | _ => false end /\
  Z.eqb (tag op) 3 = match e with EPopFront => true | _ => false end /\
  tag op <> 5%Z /\ tag op <> 6%Z /\ tag op <> 8%Z /\
  match e with ETick d => d = sx_N (sx_nth op 1) | EStep _ _ => False | _ => True end.
Proof.
  intros He. split; [intros t a E; subst e; exact He|]. revert He.
  destruct e; cbn [env_ok]; intros He;
    repeat match goal with H : _ /\ _ |- _ => destruct H end;
    match goal with H : tag op = _ |- _ => rewrite H | H : False |- _ => destruct H end;
    repeat split; try reflexivity; try discriminate; auto.
Qed.

Section C123.
Variable cfg : config.
Variable alloc : loc -> Z -> bool.
Variable oldest : N.
Variable init : list bstate.
Variable t0 : N.
Notation good := (good cfg alloc oldest init t0).
Notation interval := (c_interval cfg).

Record rel1 (m : mst) (x : xst) : Prop := mkRel1 {
  r1_good : good (x_sys x);
  r1_quiet : quiet cfg (x_sys x);
  r1_now : m_now m = s_now (x_sys x);
  r1_last : m_last_sched m = s_last (x_sys x);
  r1_armed : m_armed m = false;
  r1_cancel : m_cancelled m = s_cancel (x_sys x);
  r1_nsy : m_nsy m = x_nsy x;
  r1_prev : prev_timer (m_prev_p m) = is_ptimer (s_p (x_sys x));
  r1_retry1 : is_sleep (s_p (x_sys x)) = true -> m_retry m = true;
  r1_retry2 : m_retry m = true -> is_sleep (s_p (x_sys x)) = true \/ is_syncing (x_sys x) = true;
  r1_pop : length (m_popped m) <= totalReleased (s_pbl (x_sys x))
}.

Lemma v1_silent x res popped : good (x_sys x) -> quiet cfg (x_sys x) ->
  length popped <= totalReleased (s_pbl (x_sys x)) -> ms_v1 (enc_obs res x) popped = [].
Proof.
  intros [R [C K]] [Qr Qp] Hp. unfold ms_v1. rewrite obs_nth5, map_length.
  destruct (Nat.ltb_spec (length (releasedLog (s_pbl (x_sys x)))) (length popped)) as [Hlt|Hge]; [|reflexivity].
  cbn [andb].
  assert (toRelease (s_pbl (x_sys x)) <> []) as Hne.
  { unfold relc in C. intros E. rewrite E in C. cbn in C. lia. }
  pose proof (release_progress_reach _ _ _ _ _ _ R Hne) as Pr.
  destruct (reachable_inv_all _ _ _ _ _ _ R) as [I1 [_ [[I3a I3b] _]]].
  assert (ms_r_waits (enc_obs res x) = false) as ->; [|reflexivity].
  unfold ms_r_waits. rewrite obs_nth1, obs_nth2.
  destruct Pr as [Pr|[Pr|[Pr|[Er [Est Pr]]]]].
  - congruence.
  - unfold r_in_io in Pr. unfold enc_r. destruct (s_r (x_sys x)) as [| |[]]; try discriminate. reflexivity.
  - unfold r_in_timer in Pr. unfold enc_r. destruct (s_r (x_sys x)) as [| |[]]; try discriminate. reflexivity.
  - destruct Pr as [Pr|Pr]; [|congruence].
    unfold enc_r. rewrite Er. cbn [enc_wpc].
    unfold r_holds in I3a. rewrite Er in I3a. cbn in I3a.
    unfold p_holds in I3a. unfold p_in_io in Pr. unfold enc_p.
    destruct (s_p (x_sys x)) as [| | | | | | | |k w|]; try congruence.
    destruct w; try discriminate; try (cbn in I3a; congruence). reflexivity.
Qed.

Lemma quiet_not_notify s k : quiet cfg s -> s_p s <> PNotify k.
Proof.
  intros [_ Qp] E. unfold p_internal, p_in_io, p_in_timer, enabled in Qp. cbn [step] in Qp. unfold pstep in Qp.
  rewrite E in Qp. discriminate.
Qed.

Lemma rel1_finish m x op res x1 x2 :
  rel1 m x -> good (x_sys x1) -> qtraj x1 x2 -> good (x_sys x2) -> quiet cfg (x_sys x2) ->
  let o := enc_obs res x2 in
  s_now (x_sys x1) = ms_now m op ->
  s_cancel (x_sys x1) = ms_cancelled m op ->
  length (ms_popped m op o) <= totalReleased (s_pbl (x_sys x1)) ->
  (is_sleep (s_p (x_sys x1)) = true -> ms_retry m op o = true) ->
  (ms_retry m op o = true -> is_sleep (s_p (x_sys x1)) = true \/ is_syncing (x_sys x1) = true) ->
  (x_nsy x1 = m_nsy m \/ (x_nsy x1 = S (m_nsy m) /\ is_syncing (x_sys x1) = true /\ ms_retry m op o = true)) ->
  ((s_p (x_sys x1) <> PNotify true /\ s_last (x_sys x1) = m_last_sched m /\ ms_fired m op o = false) \/
   (s_p (x_sys x1) = PNotify true /\ s_last (x_sys x1) = ms_now m op /\
    (m_last_sched m + interval <= ms_now m op)%N /\ ms_retry m op o = false /\ ms_cancelled m op = false
    /\ x_nsy x1 = m_nsy m)) ->
  rel1 (mon_step interval m op o) x2 /\ ms_v2 interval m op o = [] /\ ms_v1 o (ms_popped m op o) = [].
Proof.
  intros R G1 Q G2 Q2 o Hnow Hcan Hpop Hr1 Hr2 Hnsy Hfire.
  destruct Q as [Q1 Qc Q3 Q4 Q5 Q6 Q7 Q8 Q9].
  assert (Hns : ms_new_sync m o = is_syncing (x_sys x2) && (m_nsy m <? x_nsy x2)) by apply new_sync_eq.
  assert (Hnsy2 : ms_nsy m o = x_nsy x2).
  { unfold ms_nsy. rewrite Hns. destruct (is_syncing (x_sys x2)) eqn:E2; cbn [andb].
    - destruct (Nat.ltb_spec (m_nsy m) (x_nsy x2)); [exact (enc_p_nsy _ E2)|].
      destruct (is_syncing (x_sys x1)); [destruct Q5|]; destruct Hnsy as [Hn|[Hn _]]; lia.
    - destruct (is_syncing (x_sys x1)) eqn:E1.
      + destruct Q5 as [_ Q5p]. unfold is_syncing in E1, E2. rewrite Q5p in E2. congruence.
      + destruct Hnsy as [Hn|[_ [Hn _]]]; [lia|discriminate Hn]. }
  assert (Hkeep : keepc (x_sys x2)) by (destruct G2 as [_ [_ K]]; exact K).
  (* the schedule-time part *)
  assert (Hsched : ms_v2 interval m op o = [] /\ ms_last_sched m op o = s_last (x_sys x2)
                   /\ ms_armed m op o = false).
  { unfold ms_v2, ms_last_sched, ms_armed. rewrite (r1_armed _ _ R).
    destruct Hfire as [[Hnn [Hl Hf]]|[Hn [Hl [Hle [Hre [Hca Hnx]]]]]].
    - assert (ms_unarmed m op o = false) as Hu.
      { unfold ms_unarmed, ms_started. rewrite Hns.
        destruct (is_syncing (x_sys x2)) eqn:E2; cbn [andb]; [|reflexivity].
        destruct (Nat.ltb_spec (m_nsy m) (x_nsy x2)) as [Hlt|Hge]; cbn [andb]; [|reflexivity].
        destruct (ms_retry m op o) eqn:Er; cbn [negb andb]; [reflexivity|].
        destruct (ms_cancelled m op) eqn:Ec; cbn [negb andb]; [reflexivity|]. exfalso.
        destruct Hnsy as [Hn|[_ [_ Hn]]]; [|congruence].
        destruct (is_syncing (x_sys x1)) eqn:E1; [destruct Q5; lia|].
        rewrite Hcan in Qc. unfold keepc in Hkeep. unfold is_syncing in E2, E1.
        destruct (s_p (x_sys x2)) as [| | | | |k f| | | |] eqn:Ep2; try discriminate.
        destruct k; [|congruence].
        destruct Q6 as [Q6|Q6]; [right; eauto|congruence|]. rewrite Q6 in E1. discriminate. }
      rewrite Hf, Hu. cbn. splits; congruence.
    - assert (s_p (x_sys x2) = PSyncing true false) as Ep2.
      { destruct (Q9 _ Hn) as [E|E]; [|exact E]. exfalso. eapply quiet_not_notify; eauto. }
      assert (is_syncing (x_sys x1) = false) as E1 by (unfold is_syncing; rewrite Hn; reflexivity).
      assert (is_syncing (x_sys x2) = true) as E2 by (unfold is_syncing; rewrite Ep2; reflexivity).
      rewrite E1, E2 in Q5.
      assert (ms_new_sync m o = true) as Hn1.
      { rewrite Hns, E2. cbn [andb]. apply Nat.ltb_lt. lia. }
      assert (ms_fired m op o || ms_unarmed m op o = true) as Hfu.
      { unfold ms_unarmed, ms_started. rewrite Hn1, Hre, Hca, (r1_armed _ _ R). cbn.
        destruct (ms_fired m op o); reflexivity. }
      rewrite Hfu, Hn1. cbn [andb negb].
      assert ((ms_now m op <? m_last_sched m + interval)%N = false) as -> by (apply N.ltb_ge; exact Hle).
      rewrite andb_false_r. splits; congruence. }
  destruct Hsched as [Hv2 [Hls Har]].
  assert (Hpop2 : length (ms_popped m op o) <= totalReleased (s_pbl (x_sys x2))) by lia.
  split; [|split; [exact Hv2|apply v1_silent; auto]].
  rewrite mon_step_eq. constructor; cbn [m_now m_last_sched m_armed m_cancelled m_nsy m_prev_p m_retry m_popped]; auto.
  - congruence.
  - congruence.
  - change (sx_nth o 2) with (enc_p x2). apply enc_p_timer.
  - intros Hs. apply Hr1. rewrite (Q7 Hs). exact Hs.
  - intros Hr. destruct (Hr2 Hr) as [Hs|Hs].
    + left. rewrite (Q8 Hs). exact Hs.
    + right. rewrite Hs in Q5. destruct Q5 as [_ Q5]. unfold is_syncing in *. rewrite Q5. exact Hs.
Qed.

(** what [rel1_finish] needs to know about the state after [do_op] *)
Record mid1 (m : mst) (op res : sx) (xo x1 : xst) : Prop := mkMid1 {
  md_now : s_now (x_sys x1) = ms_now m op;
  md_cancel : s_cancel (x_sys x1) = ms_cancelled m op;
  md_pop : length (ms_popped m op (enc_obs res xo)) <= totalReleased (s_pbl (x_sys x1));
  md_r1 : is_sleep (s_p (x_sys x1)) = true -> ms_retry m op (enc_obs res xo) = true;
  md_r2 : ms_retry m op (enc_obs res xo) = true -> is_sleep (s_p (x_sys x1)) = true \/ is_syncing (x_sys x1) = true;
  md_nsy : x_nsy x1 = m_nsy m \/
           (x_nsy x1 = S (m_nsy m) /\ is_syncing (x_sys x1) = true /\ ms_retry m op (enc_obs res xo) = true);
  md_fire : (s_p (x_sys x1) <> PNotify true /\ s_last (x_sys x1) = m_last_sched m /\ ms_fired m op (enc_obs res xo) = false) \/
            (s_p (x_sys x1) = PNotify true /\ s_last (x_sys x1) = ms_now m op /\
             (m_last_sched m + interval <= ms_now m op)%N /\ ms_retry m op (enc_obs res xo) = false
             /\ ms_cancelled m op = false /\ x_nsy x1 = m_nsy m)
}.

Lemma quiesce_quiet_id f rw x : quiet cfg (x_sys x) -> quiesce cfg (S f) rw x = Ok x.
Proof.
  intros [Qr Qp]. rewrite quiesce_S. unfold pick_of. rewrite Qr, Qp. reflexivity.
Qed.

Lemma quiet_timer_nocancel s dl : quiet cfg s -> s_p s = PTimer dl -> s_cancel s = false.
Proof.
  intros [_ Qp] E. unfold p_internal in Qp. rewrite E in Qp. exact Qp.
Qed.

Lemma rel1_mid m x op x1 res xo :
  rel1 m x -> tri cfg op x x1 res -> good (x_sys x1) /\ mid1 m op res xo x1.
Proof.
  intros R T. pose proof (r1_good _ _ R) as G. pose proof (tri_good _ _ _ _ _ _ _ _ _ G T) as G1.
  split; [exact G1|].
  pose proof (good_inv1 _ _ _ _ _ _ G) as II.
  pose proof (bp_len m op (enc_obs res xo)) as Hbl.
  pose proof (r1_pop _ _ R) as Hp0.
  assert (Hnn : forall k, s_p (x_sys x) <> PNotify k) by (intros k; apply quiet_not_notify; apply (r1_quiet _ _ R)).
  destruct T as [[-> Hn]|[[e [He [Hs [En1 En2]]]]|[t [a [[Hres [Hat Hth]] Ht]]]]].
  - (* nothing happened *)
    destruct Hn as [Hn1 [Hn4 [Hn2 [Hn7 Hn9]]]].
    assert (Hhit : forall c, (c = 1 \/ c = 3 \/ c = 5 \/ c = 6 \/ c = 8)%Z ->
                             tag op <> c \/ ms_hit (enc_obs res xo) = false).
    { intros c Hc. destruct (Z.eq_dec (tag op) c) as [E|E]; [right|left; exact E].
      unfold ms_hit. rewrite obs_nth0, Hn1; [reflexivity|rewrite E; exact Hc]. }
    constructor; auto.
    + rewrite now_same by exact Hn7. symmetry. apply (r1_now _ _ R).
    + rewrite cancelled_same by exact Hn9. symmetry. apply (r1_cancel _ _ R).
    + rewrite code_hit_off in Hbl by (apply Hhit; auto). lia.
    + rewrite retry_same by (apply Hhit; auto). apply (r1_retry1 _ _ R).
    + rewrite retry_same by (apply Hhit; auto). apply (r1_retry2 _ _ R).
    + left. symmetry. apply (r1_nsy _ _ R).
    + left. split; [apply Hnn|]. split; [symmetry; apply (r1_last _ _ R)|]. apply fired_off. apply Hhit. auto.
  - (* one environment event *)
    destruct (env_ok_code _ _ _ _ He) as [Hne [C7 [C9 [C3 [Hc5 [_ [Hc8 Cd]]]]]]].
    destruct (env_frame cfg _ _ _ Hne Hs) as [Er Ep].
    destruct (env_frame_t cfg _ _ _ Hne Hs) as [El _].
    pose proof (step_tr _ _ _ _ Hs) as Etr. pose proof (env_now_cancel _ _ _ _ Hs) as Enc.
    assert (Hret : ms_retry m op (enc_obs res xo) = m_retry m) by (apply retry_same; left; exact Hc5).
    constructor; auto.
    + unfold ms_now. rewrite C7. clear He Hne Etr.
      destruct e; try (destruct Enc as [Enc _]; rewrite Enc; symmetry; apply (r1_now _ _ R)); [|destruct Cd].
      destruct Enc as [Enc _]. rewrite Enc, (r1_now _ _ R), Cd. reflexivity.
    + unfold ms_cancelled. rewrite C9. clear He Hne Etr.
      destruct e; try (destruct Enc as [_ Enc]; rewrite Enc, orb_false_r; symmetry; apply (r1_cancel _ _ R)); [|destruct Cd].
      destruct Enc as [_ Enc]. rewrite Enc, orb_true_r. reflexivity.
    + rewrite Etr. rewrite C3 in Hbl. clear He Hne Etr Enc.
      destruct e; cbn [andb] in Hbl; try lia. destruct (ms_hit _); lia.
    + rewrite Hret, Ep. apply (r1_retry1 _ _ R).
    + rewrite Hret. unfold is_syncing. rewrite Ep. apply (r1_retry2 _ _ R).
    + left. rewrite En1. symmetry. apply (r1_nsy _ _ R).
    + left. rewrite Ep, El. split; [apply Hnn|]. split; [symmetry; apply (r1_last _ _ R)|].
      apply fired_off. left. exact Hc8.
  - (* one thread step with an external answer *)
    destruct (tstep_ok _ _ _ _ _ Ht) as [Hs [_ [_ Hsy]]].
    pose proof (internal_act_tr _ _ _ _ _ Hs) as Etr.
    assert (Hhit : ms_hit (enc_obs res xo) = true) by (unfold ms_hit; rewrite obs_nth0, Hres; reflexivity).
    assert (Hc379 : tag op <> 3%Z /\ tag op <> 7%Z /\ tag op <> 9%Z).
    { destruct Hth as [[E _]|[[E _]|[E _]]]; rewrite E; splits; discriminate. }
    destruct Hc379 as [Hc3 [Hc7 Hc9]].
    assert (Hpop1 : length (ms_popped m op (enc_obs res xo)) <= totalReleased (s_pbl (x_sys x1))).
    { rewrite Etr. rewrite code_hit_off in Hbl by (left; exact Hc3). lia. }
    assert (Hnow : forall s', s_now s' = s_now (x_sys x) -> s_now s' = ms_now m op).
    { intros s' E. rewrite now_same by exact Hc7. rewrite E. symmetry. apply (r1_now _ _ R). }
    assert (Hcan : forall s', s_cancel s' = s_cancel (x_sys x) -> s_cancel s' = ms_cancelled m op).
    { intros s' E. rewrite cancelled_same by exact Hc9. rewrite E. symmetry. apply (r1_cancel _ _ R). }
    destruct t; cbn [step] in Hs.
    + (* the release loop: the put loop is untouched *)
      pose proof (rstep_frame _ _ _ _ II Hs) as Ep. pose proof (rstep_cancel _ _ _ _ II Hs) as Ec.
      destruct (rstep_frame_t _ _ _ _ II Hs) as [El [_ En]].
      assert (Hc5 : tag op <> 5%Z).
      { destruct Hth as [[E [Et _]]|[[E _]|[E _]]]; [discriminate Et|rewrite E; discriminate|rewrite E; discriminate]. }
      assert (Hret : ms_retry m op (enc_obs res xo) = m_retry m) by (apply retry_same; left; exact Hc5).
      constructor; auto.
      * rewrite Hret, Ep. apply (r1_retry1 _ _ R).
      * rewrite Hret. unfold is_syncing. rewrite Ep. apply (r1_retry2 _ _ R).
      * left. rewrite Hsy. symmetry. apply (r1_nsy _ _ R).
      * left. rewrite Ep, El. split; [apply Hnn|]. split; [symmetry; apply (r1_last _ _ R)|].
        unfold ms_fired. destruct Hth as [[E [Et _]]|[[E _]|[E [_ [[Ew _]|[_ [Et _]]]]]]]; try discriminate Et.
        -- rewrite E. reflexivity.
        -- rewrite E, Ew. cbn. rewrite andb_false_r. reflexivity.
    + (* the put loop: each field by inspection of the table of its external steps *)
      destruct (pstep_shape _ _ _ _ II Hs) as [Ec [En [_ Hl]]].
      destruct (pstep_external _ _ _ _ _ _ II (conj Hres (conj Hat Hth)) Hs) as [PE Htm].
      assert (Hret : ms_retry m op (enc_obs res xo)
                     = if Z.eqb (tag op) 5 then negb (sx_bool (sx_nth op 1)) else m_retry m).
      { unfold ms_retry, ms_sync_done. rewrite Hhit, andb_true_r. reflexivity. }
      assert (Hfire : ms_fired m op (enc_obs res xo)
                      = Z.eqb (tag op) 8 && Z.eqb (sx_Z (sx_nth op 1)) 1 && is_ptimer (s_p (x_sys x))).
      { unfold ms_fired. rewrite Hhit, andb_true_r, <- (r1_prev _ _ R). symmetry. apply andb_assoc. }
      pose proof (r1_retry1 _ _ R) as Hr1. pose proof (r1_retry2 _ _ R) as Hr2. unfold is_syncing in Hr2, Hsy.
      constructor; auto; unfold is_syncing; rewrite ?Hsy, ?Hfire, ?Hret, ?(r1_nsy _ _ R).
      * (* asleep afterwards: only after a failed DataSyncer call *)
        clear Hr1 Hr2. destruct PE; cbn; auto; discriminate.
      * (* the retry flag is set by a failed call, or was set and the loop was asleep *)
        revert Hr2. destruct PE; cbn; auto; intros Hr2 H; try discriminate H; destruct (Hr2 H); discriminate.
      * (* a DataSyncer call is entered from the retry sleep only *)
        revert Hr1. destruct PE; cbn; auto.
      * (* [PNotify true] comes from the interval timer only *)
        pose proof (fun dl => quiet_timer_nocancel (x_sys x) dl (r1_quiet _ _ R)) as Hq.
        destruct (reachable_inv_all _ _ _ _ _ _ (proj1 G)) as [_ [_ [_ [_ [_ [_ I4]]]]]].
        rewrite (r1_last _ _ R), now_same, cancelled_same, (r1_now _ _ R), (r1_cancel _ _ R) by assumption.
        revert Hl Htm Hq I4 Hr2.
        destruct PE as [k f|k f dl|k st|k st dl|dl b Hc|dl b|k f dl b|k dl b]; cbn; intros Hl Htm Hq I4 Hr2.
        5: { rewrite (Hq dl eq_refl) in Hc. discriminate Hc. }
        5: { (* the interval timer expires: the schedule time *)
             right. destruct (Htm dl eq_refl eq_refl) as [Sl Hd]. specialize (I4 dl eq_refl).
             splits; auto; [lia| |exact (Hq dl eq_refl)].
             destruct (m_retry m); [destruct (Hr2 eq_refl); discriminate|reflexivity]. }
        all: left; (split; [discriminate|]); split; [exact Hl|try reflexivity; apply andb_false_r].
Qed.

Lemma rel1_step m x op rw x1 res x2 :
  rel1 m x -> tri cfg op x x1 res -> quiesce cfg 64 rw x1 = Ok x2 ->
  rel1 (mon_step interval m op (enc_obs res x2)) x2
  /\ ms_v2 interval m op (enc_obs res x2) = [] /\ ms_v1 (enc_obs res x2) (ms_popped m op (enc_obs res x2)) = [].
Proof.
  intros R T Hq. destruct (rel1_mid m x op x1 res x2 R T) as [G1 [M1 M2 M3 M4 M5 M6 M7]].
  pose proof (quiesce_traj _ _ _ _ _ _ _ _ _ G1 Hq) as Q.
  apply (rel1_finish m x op res x1 x2); auto.
  - exact (quiesce_good _ _ _ _ _ _ _ _ _ G1 Hq).
  - exact (quiesce_quiet64 _ _ _ _ _ _ _ _ G1 Hq).
Qed.

End C123.
