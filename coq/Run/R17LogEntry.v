(** C17L, clause 27: on the event log of every trace of the mixed-entry-point
    system (Compose/ReplEntry.v), a ReplicateSingle / ReplicateComposite caller
    that returned success has a successful read of its object from the sink of
    its own in the log.  The property is local to a step: the only step that
    emits the success event of such a caller is the release of its read-back
    with OK, which emits the successful sink read just before it. *)
From Coq Require Import List ZArith NArith Bool Arith Lia.
From BBS Require Import Common.Sx Common.ListX Run.MonSilentSx
  Compose.Replicators Compose.ReplEntry Compose.ReplEntryProofs
  Compose.EventLog Run.R17Conc Run.R17L Run.R17LogBase.
Import ListNotations.
Local Open Scope nat_scope.

Lemma xlog_inv_from kinds m (P : xstate -> list sx -> Prop) :
  (forall x lg e x', P x lg -> xstep kinds m x e = Some x' -> P x' (lg ++ xemit kinds m x e)) ->
  forall tr x0 lg0 x, P x0 lg0 -> xrun kinds m x0 tr = Some x -> P x (lg0 ++ xlog kinds m x0 tr).
Proof.
  intros Hs. induction tr as [|e tr IH]; intros x0 lg0 x H0 H; cbn [xrun xlog] in *.
  - inversion H; subst. rewrite app_nil_r. exact H0.
  - destruct (xstep kinds m x0 e) as [x1|] eqn:E; [|discriminate]. rewrite app_assoc.
    apply (IH x1); [apply Hs; assumption|exact H].
Qed.

Theorem xlog_inv kinds m (P : xstate -> list sx -> Prop) x0 :
  P x0 [] ->
  (forall x lg e x', P x lg -> xstep kinds m x e = Some x' -> P x' (lg ++ xemit kinds m x e)) ->
  forall tr x, xrun kinds m x0 tr = Some x -> P x (xlog kinds m x0 tr).
Proof. intros H0 Hs tr x. exact (xlog_inv_from kinds m P Hs tr x0 [] x H0). Qed.

Definition clause27_ok (kinds : list ekind) (lg : list sx) : Prop :=
  forall i d, read_obj (nth i kinds KMulti) = Some d ->
    (exists x, In x lg /\ is_succ i x = true) -> exists y, In y lg /\ sink_ok i d y = true.

Lemma sink_ok_read i d op t : op = 0%Z \/ op = 3%Z -> sink_ok i d (ev_ret i 0 op d 0 [] t) = true.
Proof.
  intros Ho. unfold sink_ok. rewrite caller_ret, Nat.eqb_refl.
  change (sx_nth (ev_ret i 0 op d 0 [] t) 4) with (of_nats [d]). rewrite sx_eqb_refl.
  change (sx_Z (sx_nth (ev_ret i 0 op d 0 [] t) 3)) with op. destruct Ho as [->| ->]; reflexivity.
Qed.

Lemma xarrive_succ kinds i t p j x : In x (xarrive kinds i t p) -> is_succ j x = true ->
  j = i /\ read_obj (nth i kinds KMulti) = None.
Proof.
  unfold xarrive. intros Hx Sx.
  destruct (read_obj (nth i kinds KMulti)) as [d|] eqn:R.
  - destruct p; try (destruct (arrive_succ _ _ _ _ _ Hx Sx) as [_ X]; discriminate X).
    destruct c; [destruct Hx as [<-|[]]; discriminate Sx| |];
      destruct (arrive_succ _ _ _ _ _ Hx Sx) as [_ X]; discriminate X.
  - split; [|reflexivity].
    assert (Hx' : In x (arrive i t p)) by (destruct p; try exact Hx; destruct c; exact Hx).
    apply (arrive_succ _ _ _ _ _ Hx' Sx).
Qed.

Lemma reading_obj kinds x i d : reading kinds x i = Some d -> read_obj (nth i kinds KMulti) = Some d.
Proof.
  unfold reading. destruct (nth_error (thr (xb x)) i) as [t|]; [|discriminate].
  destruct (nth i (xpost x) PNone); [|discriminate]. destruct (tpc t); try discriminate. destruct c; try discriminate. auto.
Qed.

Lemma xemit_local kinds m x e i d y : read_obj (nth i kinds KMulti) = Some d ->
  In y (xemit kinds m x e) -> is_succ i y = true -> exists z, In z (xemit kinds m x e) /\ sink_ok i d z = true.
Proof.
  intros R Hy Sy. unfold xemit in *. destruct (xstep kinds m x e) as [x'|]; [|destruct Hy].
  assert (Base : forall e0, In y (emit_with (xarrive kinds) (xb x) e0 (xb x')) -> False).
  { intros e0 Hy0. destruct e0 as [i0|i0 f0|i0|dt|i0 alt]; cbn [emit_with] in Hy0; try contradiction.
    - destruct Hy0 as [<-|Hy0]; [discriminate Sy|]. destruct (xarrive_succ _ _ _ _ _ _ Hy0 Sy) as [-> X]. congruence.
    - apply in_app_or in Hy0. destruct Hy0 as [Hy0|Hy0]; [rewrite (returned_not_succ _ _ _ _ i _ Hy0) in Sy; discriminate|].
      destruct (xarrive_succ _ _ _ _ _ _ Hy0 Sy) as [-> X]. congruence.
    - destruct (xarrive_succ _ _ _ _ _ _ Hy0 Sy) as [-> X]. congruence. }
  destruct e as [i0|i0 f|i0|dt|i0 alt]; try (exfalso; eapply Base; exact Hy).
  destruct (reading kinds x i0) as [d0|] eqn:Rd; [|exfalso; eapply Base; exact Hy].
  destruct Hy as [<-|[<-|[]]]; [discriminate Sy|].
  apply is_succ_done in Sy. destruct Sy as [-> Rc].
  apply reading_obj in Rd. rewrite R in Rd. injection Rd as <-.
  apply read_code_ok in Rc. destruct Rc as [-> Hm]. rewrite Hm. cbn [Z.eqb negb].
  eexists. split; [left; reflexivity|]. apply sink_ok_read. unfold read_op. destruct (nth i0 kinds KMulti); auto.
Qed.

Lemma clause27_step kinds m x lg e : clause27_ok kinds lg -> clause27_ok kinds (lg ++ xemit kinds m x e).
Proof.
  intros H i d R (y & Hy & Sy). apply in_app_or in Hy. destruct Hy as [Hy|Hy].
  - destruct (H i d R (ex_intro _ y (conj Hy Sy))) as (z & Hz & Sz). exists z. split; [apply in_or_app; left; exact Hz|exact Sz].
  - destruct (xemit_local kinds m x e i d y R Hy Sy) as (z & Hz & Sz). exists z. split; [apply in_or_app; right; exact Hz|exact Sz].
Qed.

Theorem entry_clause27 kinds m x0 tr x : xrun kinds m x0 tr = Some x -> clause27_ok kinds (xlog kinds m x0 tr).
Proof.
  intros H. refine (xlog_inv kinds m (fun _ lg => clause27_ok kinds lg) x0 _ _ tr x H).
  - intros i d _ (y & [] & _).
  - intros; apply clause27_step; assumption.
Qed.

Lemma combine_seq_nth {T} (l : list T) dflt : forall a i k, In (i, k) (combine (seq a (length l)) l) -> a <= i /\ nth (i - a) l dflt = k.
Proof.
  induction l as [|h t IH]; intros a i k H; cbn [length seq combine] in H; [destruct H|].
  destruct H as [E|H].
  - inversion E; subst. rewrite Nat.sub_diag. auto.
  - apply IH in H. destruct H as [Hle Hn]. split; [lia|]. replace (i - a) with (S (i - S a)) by lia. exact Hn.
Qed.

Lemma flat_map_nil_in {T U} (f : T -> list U) l : (forall x, In x l -> f x = []) -> flat_map f l = [].
Proof.
  induction l as [|x l IH]; intros H; [reflexivity|]. cbn [flat_map].
  rewrite (H x (or_introl eq_refl)), IH; [reflexivity|]. intros y Hy. apply H. right. exact Hy.
Qed.

Theorem mon_results_silent kinds lg : clause27_ok kinds lg -> mon_results kinds lg = [].
Proof.
  intros H. unfold mon_results. apply flat_map_nil_in. intros [i k] Hin. cbn [fst snd].
  destruct (combine_seq_nth kinds KMulti 0 i k Hin) as [_ Hk]. rewrite Nat.sub_0_r in Hk.
  destruct (read_obj k) as [d|] eqn:R; [|reflexivity].
  match goal with |- (if ?a && negb ?b then _ else _) = _ => destruct a eqn:E1; [|reflexivity]; assert (E2 : b = true); [|rewrite E2; reflexivity] end.
  apply existsb_exists in E1. destruct E1 as (x & Hx & Sx).
  rewrite <- Hk in R. destruct (H i d R (ex_intro _ x (conj Hx Sx))) as (y & Hy & Sy).
  apply existsb_exists. exists y. split; assumption.
Qed.
