(** C17L: the monitor of Run/R17L.v is silent on every observation the judge
    accepts (clauses 21/22/23: calls of the base replicator in flight; clause
    26: a caller is blocked only while all permits are in use), for every mix
    of entry points and every schedule.  Clause 27 reads the harness's event
    log, which the agreement test does not constrain (as clauses 24/25 of
    C17); it is tied to the model by [entry_clause27] / [mon_results_silent]
    (Run/R17LogEntry.v) and [mon17L_silent_on_accepted_any_write_order]
    (Run/R17LogMon.v). *)
From Coq Require Import List ZArith NArith Bool Arith Lia.
From BBS Require Import Common.Sx Common.SxFactsMA Common.ListX Compose.ExistenceCache
  Compose.Replicators Compose.ReplicatorsProofs Compose.MonSilentRepl
  Compose.ReplEntry Compose.ReplEntryProofs Run.R17Conc Run.R17L.
Import ListNotations.
Local Open Scope nat_scope.

(** * Every state the judge keeps has every property of the initial state that
    steps preserve; every state it keeps at the end of a round is quiescent and
    shows the observed statuses. *)
Section XReach.
  Variable kinds : list ekind.
  Variable m : mode.
  Variable P : xstate -> Prop.
  Hypothesis Pstep : forall x e x', P x -> xstep kinds m x e = Some x' -> P x'.

  Definition quiet (x : xstate) : Prop := tau_succ m (xb x) = [].
  Definition allP (l : list (xstate * sx)) : Prop := Forall (fun y => P (fst y)) l.
  Definition allQ (l : list (xstate * sx)) : Prop := Forall (fun y => P (fst y) /\ quiet (fst y)) l.

  Lemma allQ_allP l : allQ l -> allP l.
  Proof. unfold allQ, allP. rewrite !Forall_forall. intros H y Hy. apply (H y Hy). Qed.

  Lemma allP_add_new y l : P (fst y) -> allP l -> allP (xadd_new y l).
  Proof. intros Hy Hl. unfold xadd_new. destruct (existsb _ l); [exact Hl|constructor; assumption]. Qed.

  Lemma allQ_add_new y l : P (fst y) -> quiet (fst y) -> allQ l -> allQ (xadd_new y l).
  Proof. intros Hy Hq Hl. unfold xadd_new. destruct (existsb _ l); [exact Hl|constructor; [split|]; assumption]. Qed.

  Lemma xtau_succ_P x : P x -> Forall P (xtau_succ m x).
  Proof.
    intros Hx. unfold xtau_succ. apply Forall_forall. intros x' Hin. apply in_map_iff in Hin.
    destruct Hin as (b & <- & Hin). unfold tau_succ in Hin. apply in_flat_map in Hin.
    destruct Hin as (i & _ & Hin). apply in_app_or in Hin. destruct Hin as [Hin|Hin].
    - destruct (step m (xb x) (ETau i false)) eqn:E; [|destruct Hin]. destruct Hin as [<-|[]].
      apply (Pstep x (ETau i false)); [exact Hx|]. unfold xstep, lift. rewrite E. reflexivity.
    - destruct (step m (xb x) (ETau i true)) eqn:E; [|destruct Hin]. destruct Hin as [<-|[]].
      apply (Pstep x (ETau i true)); [exact Hx|]. unfold xstep, lift. rewrite E. reflexivity.
  Qed.

  Lemma xquiesce_Q fuel : forall frontier finals, allP frontier -> allQ finals -> allQ (xquiesce fuel m frontier finals).
  Proof.
    induction fuel as [|f IH]; intros frontier finals Hf Hn; cbn [xquiesce]; [exact Hn|].
    destruct frontier as [|y0 fr]; [exact Hn|].
    match goal with |- context [fold_left ?F ?l ?a] =>
      assert (FI : allP (fst (fold_left F l a)) /\ allQ (snd (fold_left F l a))) end.
    { apply (fold_left_inv _ (fun acc => allP (fst acc) /\ allQ (snd acc))); [split; [constructor|exact Hn]|].
      intros acc y [A1 A2] Hy.
      assert (Py : P (fst y)) by (unfold allP in Hf; rewrite Forall_forall in Hf; apply Hf, Hy).
      pose proof (xtau_succ_P (fst y) Py) as T.
      destruct (xtau_succ m (fst y)) as [|x1 succ] eqn:E; cbn [fst snd].
      - split; [exact A1|]. apply allQ_add_new; [exact Py| |exact A2].
        unfold quiet. unfold xtau_succ in E. apply map_eq_nil in E. exact E.
      - split; [|exact A2]. apply (fold_left_inv _ allP); [exact A1|].
        intros a x' Ha Hx'. apply allP_add_new; [|exact Ha]. cbn [xtag fst]. rewrite Forall_forall in T. apply T, Hx'. }
    destruct (fold_left _ (y0 :: fr) ([], finals)) as [next finals']. cbn [fst snd] in FI.
    apply IH; apply FI.
  Qed.

  Lemma xround_Q e o states : allP states ->
    Forall (fun y => P (fst y) /\ quiet (fst y) /\ xstatuses kinds (fst y) = o) (xround kinds m e o states).
  Proof.
    intros H. unfold xround. apply Forall_forall. intros y Hy. apply filter_In in Hy. destruct Hy as [Hy Hs].
    apply sx_eqb_eq in Hs.
    assert (Q : allQ (xquiesce 200 m (fold_left (fun a y0 => xadd_new (xtag (xapply_ev kinds m e (fst y0))) a) states []) [])).
    { apply xquiesce_Q; [|constructor].
      apply (fold_left_inv _ allP); [constructor|]. intros a y1 Ha Hy1. apply allP_add_new; [|exact Ha]. cbn [xtag fst].
      assert (Py1 : P (fst y1)) by (unfold allP in H; rewrite Forall_forall in H; apply H, Hy1).
      unfold xapply_ev. destruct (xstep kinds m (fst y1) e) eqn:E; [eapply Pstep; eassumption|exact Py1]. }
    unfold allQ in Q. rewrite Forall_forall in Q. destruct (Q y Hy) as [A B]. repeat split; assumption.
  Qed.

  Lemma xround_P e o states : allP states -> allP (xround kinds m e o states).
  Proof.
    intros H. pose proof (xround_Q e o states H) as Q. unfold allP. rewrite Forall_forall in *.
    intros y Hy. apply (Q y Hy).
  Qed.

  Lemma xrounds_P evs : forall obs states n, allP states -> allP (fst (xrounds kinds m evs obs states n)).
  Proof.
    induction evs as [|e evs IH]; intros [|o obs] states n H; cbn [xrounds fst]; try constructor; [exact H|].
    pose proof (xround_P e o states H) as R. destruct (xround kinds m e o states) as [|y l]; [constructor|].
    apply IH, R.
  Qed.

  Lemma xrounds_obs evs : forall obs states n, allP states -> fst (xrounds kinds m evs obs states n) <> [] ->
    Forall (fun o => exists x, P x /\ quiet x /\ xstatuses kinds x = o) obs.
  Proof.
    induction evs as [|e evs IH]; intros [|o obs] states n H Hne; cbn [xrounds fst] in Hne; try (constructor; fail);
      try (exfalso; apply Hne; reflexivity).
    pose proof (xround_Q e o states H) as Q. pose proof (xround_P e o states H) as R.
    destruct (xround kinds m e o states) as [|y l]; [exfalso; apply Hne; reflexivity|].
    constructor.
    - inversion Q; subst. exists (fst y). assumption.
    - eapply IH; [exact R|exact Hne].
  Qed.
End XReach.

Definition xinv (m : mode) (x : xstate) : Prop := Inv m (xb x) /\ aux m (xb x).

Lemma xinv_step kinds m x e x' : xinv m x -> xstep kinds m x e = Some x' -> xinv m x'.
Proof.
  intros [I A] St. unfold xinv. destruct (xstep_base _ _ _ _ _ St) as [->|B]; [split; assumption|].
  split; [eapply step_inv; eassumption|eapply aux_step; eassumption].
Qed.

Lemma xinv_init kinds m sets source sink : allP (xinv m) [xtag (xinit kinds sets source sink)].
Proof. constructor; [|constructor]. split; [apply inv_init|apply aux_init]. Qed.

(** * The monitor by clause group: 21/22/23 (counts), 26 (release), 27
    (results) *)
Definition monL_counts (inp obs : sx) : list Z :=
  let '(m, kinds, sets, source, sink, evs) := cfgL inp in
  mon_counts m (sx_nat (sx_nth obs 1)) (sx_nat (sx_nth obs 2)).

Definition monL_release (inp obs : sx) : list Z :=
  let '(m, kinds, sets, source, sink, evs) := cfgL inp in
  mon_release m (sx_list (sx_nth obs 0)).

Definition monL_results (inp obs : sx) : list Z :=
  let '(m, kinds, sets, source, sink, evs) := cfgL inp in
  mon_results kinds (sx_list (sx_nth obs 4)).

Lemma mon17L_split inp obs :
  mon17L inp obs = if sx_eqb obs (L [A (-1)]) then [] else monL_counts inp obs ++ monL_release inp obs ++ monL_results inp obs.
Proof.
  unfold mon17L, monL_counts, monL_release, monL_results.
  destruct (cfgL inp) as [[[[[m kinds] sets] source] sink] evs]. reflexivity.
Qed.

Theorem counts_silent_on_accepted inp obs : fst (run_L inp obs) = true -> monL_counts inp obs = [].
Proof.
  unfold run_L, monL_counts. destruct (cfgL inp) as [[[[[m kinds] sets] source] sink] evs].
  pose proof (xrounds_P kinds m (xinv m) (xinv_step kinds m)
                evs (sx_list (sx_nth obs 0)) _ 0 (xinv_init kinds m sets source sink)) as R.
  destruct (xrounds kinds m evs (sx_list (sx_nth obs 0)) [xtag (xinit kinds sets source sink)] 0) as [fin n]. cbn [fst] in R.
  cbv zeta.
  destruct (filter _ fin) as [|y l] eqn:F; cbn [fst]; [discriminate|]. intros _.
  assert (Hy : In y (y :: l)) by (left; reflexivity). rewrite <- F in Hy. apply filter_In in Hy. destruct Hy as [Hin Hc].
  apply andb_prop in Hc. destruct Hc as [Hc _]. apply andb_prop in Hc. destruct Hc as [Hk Ha].
  apply Nat.eqb_eq in Hk, Ha. rewrite <- Hk, <- Ha.
  unfold allP in R. rewrite Forall_forall in R. pose proof (i_b _ _ (proj1 (R y Hin))) as B.
  unfold mon_counts. destruct m as [|lim|size dur]; cbn [bound_ok] in B;
    match goal with |- (if ?c then _ else _) = _ => assert (E : c = false) by (apply Nat.ltb_ge; exact B); rewrite E end; reflexivity.
Qed.

Lemma flat_map_nil_inv {T U} (f : T -> list U) l : flat_map f l = [] -> forall x, In x l -> f x = [].
Proof.
  induction l as [|h t IH]; intros H x Hx; [destruct Hx|]. cbn [flat_map] in H. apply app_eq_nil in H. destruct H as [H1 H2].
  destruct Hx as [<-|Hx]; [exact H1|apply IH; assumption].
Qed.

Lemma quiet_no_granted lim s i t : tau_succ (MLimit lim) s = [] -> nth_error (thr s) i = Some t -> tpc t <> Granted.
Proof.
  intros Q Hi Hp. unfold tau_succ in Q.
  assert (Hin : In i (seq 0 (length (thr s)))).
  { apply in_seq. split; [lia|]. cbn. apply nth_error_Some. rewrite Hi. discriminate. }
  pose proof (flat_map_nil_inv _ _ Q i Hin) as E. apply app_eq_nil in E. destruct E as [E _].
  cbn [step] in E. rewrite Hi, Hp in E. destruct (cancelled t); discriminate.
Qed.

Lemma blocked_exists kinds posts : forall ts i0, 0 < countb st_blocked (xstat_from kinds posts i0 ts) ->
  exists t, In t ts /\ (tpc t = WaitSem \/ (exists k e, tpc t = Wait k e) \/ tpc t = WaitTok).
Proof.
  induction ts as [|t r IH]; intros i0 H; cbn [xstat_from] in H; [unfold countb in H; cbn in H; lia|].
  unfold countb in H. cbn [filter] in H.
  destruct (st_blocked (xstatus kinds posts i0 t)) eqn:B.
  - exists t. split; [left; reflexivity|]. unfold xstatus, status_of in B.
    destruct (tpc t) eqn:Hp; try (cbn in B; discriminate B).
    + right. left. eexists; eexists; reflexivity.
    + left. reflexivity.
    + right. right. reflexivity.
    + exfalso. destruct c; try (cbn in B; discriminate B).
      destruct (nth i0 kinds KMulti); [cbn in B; discriminate B| |]; destruct (nth i0 posts PNone); cbn in B; discriminate B.
  - destruct (IH (S i0) H) as (t' & Hin & Ht'). exists t'. split; [right; exact Hin|exact Ht'].
Qed.

Lemma copy_count kinds posts : forall ts i0, count in_copy ts <= countb st_copying (xstat_from kinds posts i0 ts).
Proof.
  induction ts as [|t r IH]; intros i0; cbn [xstat_from]; [unfold count, countb; cbn; lia|].
  specialize (IH (S i0)). unfold count, countb in *. cbn [filter].
  destruct (in_copy t) eqn:C.
  - assert (S : st_copying (xstatus kinds posts i0 t) = true).
    { unfold in_copy in C. unfold xstatus, status_of. destruct (tpc t); try discriminate C; reflexivity. }
    rewrite S. cbn [length]. lia.
  - destruct (st_copying (xstatus kinds posts i0 t)); cbn [length]; lia.
Qed.

Lemma not_starved lim kinds posts s :
  linv lim s -> tau_succ (MLimit lim) s = [] ->
  starved lim (L (xstat_from kinds posts 0 (thr s))) = false.
Proof.
  intros I Q. pose proof I as [P R]. unfold starved. cbn [sx_list].
  destruct (Nat.ltb 0 (countb st_blocked (xstat_from kinds posts 0 (thr s)))) eqn:B; [|reflexivity]. cbn [andb].
  apply Nat.ltb_lt in B. apply Nat.ltb_ge.
  destruct (blocked_exists _ _ _ _ B) as (t & Hin & Ht).
  apply In_nth_error in Hin. destruct Hin as [i Hi].
  pose proof (lpc_at lim s i t I Hi) as L. unfold lpc in L.
  assert (Hw : tpc t = WaitSem).
  { destruct Ht as [E|[(k & e & E)|E]]; [exact E|rewrite E in L; contradiction|rewrite E in L; contradiction]. }
  assert (Hq : semq s <> []).
  { assert (In i (semq s)) as X by (apply (p_q _ _ P); exists t; split; assumption).
    intros E. rewrite E in X. destruct X. }
  pose proof (R Hq) as K. pose proof (p_cnt _ _ P) as C.
  assert (count holder (thr s) <= count in_copy (thr s)).
  { apply count_le_in. intros y Hy Hh. apply In_nth_error in Hy. destruct Hy as [j Hj].
    pose proof (quiet_no_granted lim s j y Q Hj) as G. unfold holder in Hh. unfold in_copy.
    destruct (tpc y); try discriminate Hh; try reflexivity. contradiction. }
  pose proof (copy_count kinds posts (thr s) 0). lia.
Qed.

Theorem release_silent_on_accepted inp obs : fst (run_L inp obs) = true -> monL_release inp obs = [].
Proof.
  unfold run_L, monL_release. destruct (cfgL inp) as [[[[[m kinds] sets] source] sink] evs].
  pose proof (xrounds_obs kinds m (xinv m) (xinv_step kinds m)
                evs (sx_list (sx_nth obs 0)) _ 0 (xinv_init kinds m sets source sink)) as R.
  destruct (xrounds kinds m evs (sx_list (sx_nth obs 0)) [xtag (xinit kinds sets source sink)] 0) as [fin n]. cbn [fst] in R.
  cbv zeta.
  destruct (filter _ fin) as [|y l] eqn:F; cbn [fst]; [discriminate|]. intros _.
  assert (Hne : fin <> []).
  { intros E. rewrite E in F. discriminate F. }
  specialize (R Hne). unfold mon_release. destruct m as [|lim|size dur]; try reflexivity.
  match goal with |- (if ?c then _ else _) = _ => assert (E : c = false); [|rewrite E; reflexivity] end.
  apply not_true_iff_false. intros Hex. apply existsb_exists in Hex. destruct Hex as (o & Ho & Hs).
  rewrite Forall_forall in R. destruct (R o Ho) as (x & [_ I] & Qx & <-).
  unfold xstatuses in Hs. rewrite (not_starved lim kinds (xpost x) (xb x) I Qx) in Hs. discriminate Hs.
Qed.

Definition agreeL (inp obs : sx) : bool := sx_bool (sx_nth (judge17L inp obs) 0).

Lemma agreeL_run inp obs : agreeL inp obs = fst (run_L inp obs).
Proof.
  unfold agreeL, judge17L. destruct (run_L inp obs) as [a mo]. cbn [fst].
  unfold verdict. cbn. destruct a; reflexivity.
Qed.

(** On every observation the judge accepts, the concurrency bound (any mix of
    entry points) and the release clause are silent. *)
Theorem bound_and_release_silent_on_accepted inp obs :
  agreeL inp obs = true -> monL_counts inp obs = [] /\ monL_release inp obs = [].
Proof.
  rewrite agreeL_run. intros H. split; [apply counts_silent_on_accepted|apply release_silent_on_accepted]; exact H.
Qed.
