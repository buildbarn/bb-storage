(** C01S (sub-check of C01): sx interface of the sector writer model
    (Store/SectorWriter.v): decoders, run, monitor, judge.

    input  (sector spb restored fill (ev...))
             the device has 3 blocks of spb sectors filled with [fill]; the block under
             test is the second one (deviceOffsetSectors = spb);
             restored = -1: NewBlock | r >= 0: NewBlockAtLocation(location, r)
             ev = (0 size)       HasSpace(size); if true Put(size): the next writer id
                | (1 k (bytes))  the upload source of writer k delivers a chunk
                | (2 k)          the source of writer k delivers io.EOF
                | (3 k)          the source of writer k fails
                | (4 size)       HasSpace(size) only
    obs    ( (step...) (final device bytes) (start offset of every writer) )
             step = (res (write...)) ; write = (offset (bytes)) in order of the WriteAt calls
             res  = (hs) for ev 0/4 | (0) writer still running | (1 off) finalizer returned
                    (off, nil) | (2 off) finalizer returned (off, err) | (9) no such live writer

    Between the source and [Write] sits the real CAS validating chunk reader
    (buffer.NewCASBufferFromChunkReader): it withholds the chunk that completes the
    declared size until the source reports EOF, rejects surplus data and a
    premature EOF.  [exec] below models that hand-over (reader state [vst], [finish]) (the validator itself is C09's
    subject), so that the events given to the sector writer model are
    Write/flush/abandon. *)
From BBS Require Import Common.Sx Store.SectorWriter.
Open Scope nat_scope.

Definition dec_bytes (s : sx) : list byte := sx_Zs s.
Definition enc_bytes (b : list byte) : sx := of_Zs b.
Definition enc_write (w : dwrite) : sx := L [of_nat (fst w); enc_bytes (snd w)].
Definition enc_log (l : list dwrite) : sx := L (map enc_write l).
Definition dec_write (s : sx) : dwrite := (sx_nat (sx_nth s 0), dec_bytes (sx_nth s 1)).
Definition dec_log (s : sx) : list dwrite := map dec_write (sx_list s).

Record cfg01s := { k_cfg : cfg; k_restored : option nat; k_fill : byte; k_events : list sx }.
Definition dec_cfg (inp : sx) : cfg01s :=
  let spb := sx_nat (sx_nth inp 1) in
  {| k_cfg := {| c_sector := sx_nat (sx_nth inp 0); c_spb := spb; c_base := spb |};
     k_restored := (if Z.ltb (sx_Z (sx_nth inp 2)) 0 then None else Some (sx_nat (sx_nth inp 2)));
     k_fill := sx_Z (sx_nth inp 3);
     k_events := sx_list (sx_nth inp 4) |}.

Definition init_dev (k : cfg01s) : list byte :=
  repeat (k_fill k) (3 * c_spb (k_cfg k) * c_sector (k_cfg k)).
Definition init_cursor (k : cfg01s) : cursor :=
  match k_restored k with None => new_block | Some r => new_block_at (k_cfg k) r end.

(** ---- model run ---- *)

(** the validating chunk reader in front of writer k *)
Record vst := { v_size : nat; v_fed : nat; v_pending : option (list byte); v_live : bool }.

Record rstate := { r_st : state; r_v : list vst }.

Definition step_skip (c : cfg) (s : state) (e : event) : state * list dwrite :=
  match step c s e with Some r => r | None => (s, []) end.

Definition steps_skip (c : cfg) (s : state) (es : list event) : state * list dwrite :=
  fold_left (fun acc e => let '(s', l) := step_skip c (fst acc) e in (s', snd acc ++ l)) es (s, []).

Definition start_of (s : state) (k : nat) : nat :=
  match nth_error (st_threads s) k with Some t => t_start t | None => 0 end.

Definition finish (r : rstate) (k : nat) (v : vst) : list vst :=
  upd (r_v r) k {| v_size := v_size v; v_fed := v_fed v; v_pending := None; v_live := false |}.

(** one harness event: new state, result, device writes *)
Definition exec (c : cfg) (r : rstate) (ev : sx) : rstate * sx * list dwrite :=
  let kind := sx_nat (sx_nth ev 0) in
  let arg := sx_nat (sx_nth ev 1) in
  let live k := match nth_error (r_v r) k with
                | Some v => if v_live v then Some v else None
                | None => None end in
  match kind with
  | 0 =>
      let hs := has_space c (st_cur (r_st r)) arg in
      if hs then
        let '(s', l) := step_skip c (r_st r) (EAlloc arg) in
        ({| r_st := s'; r_v := r_v r ++ [{| v_size := arg; v_fed := 0; v_pending := None; v_live := true |}] |},
         L [of_bool true], l)
      else (r, L [of_bool false], [])
  | 4 => (r, L [of_bool (has_space c (st_cur (r_st r)) arg)], [])
  | 1 =>
      let chunk := dec_bytes (sx_nth ev 2) in
      match live arg with
      | None => (r, L [A 9], [])
      | Some v =>
          if v_fed v =? v_size v then
            (* no more data expected: an empty chunk is skipped, anything else is "too big" *)
            match chunk with
            | [] => (r, L [A 0], [])
            | _ => let '(s', l) := step_skip c (r_st r) (EAbandon arg) in
                   ({| r_st := s'; r_v := finish r arg v |}, L [A 2; of_nat (start_of s' arg)], l)
            end
          else if v_size v - v_fed v <? length chunk then
            let '(s', l) := step_skip c (r_st r) (EAbandon arg) in
            ({| r_st := s'; r_v := finish r arg v |}, L [A 2; of_nat (start_of s' arg)], l)
          else if v_fed v + length chunk =? v_size v then
            (* last chunk: withheld until the source reports EOF *)
            ({| r_st := r_st r;
                r_v := upd (r_v r) arg {| v_size := v_size v; v_fed := v_size v;
                                          v_pending := Some chunk; v_live := true |} |}, L [A 0], [])
          else
            let '(s', l) := step_skip c (r_st r) (EWrite arg chunk) in
            ({| r_st := s';
                r_v := upd (r_v r) arg {| v_size := v_size v; v_fed := v_fed v + length chunk;
                                          v_pending := None; v_live := true |} |}, L [A 0], l)
      end
  | 2 =>
      match live arg with
      | None => (r, L [A 9], [])
      | Some v =>
          if v_fed v =? v_size v then
            let es := match v_pending v with Some ch => [EWrite arg ch] | None => [] end in
            let '(s', l) := steps_skip c (r_st r) (es ++ [EFlush arg]) in
            ({| r_st := s'; r_v := finish r arg v |}, L [A 1; of_nat (start_of s' arg)], l)
          else
            let '(s', l) := step_skip c (r_st r) (EAbandon arg) in
            ({| r_st := s'; r_v := finish r arg v |}, L [A 2; of_nat (start_of s' arg)], l)
      end
  | 3 =>
      match live arg with
      | None => (r, L [A 9], [])
      | Some v =>
          let '(s', l) := step_skip c (r_st r) (EAbandon arg) in
          ({| r_st := s'; r_v := finish r arg v |}, L [A 2; of_nat (start_of s' arg)], l)
      end
  | _ => (r, L [A 9], [])
  end.

Fixpoint exec_all (c : cfg) (r : rstate) (evs : list sx) : rstate * list sx :=
  match evs with
  | [] => (r, [])
  | ev :: evs' =>
      let '(r1, res, l) := exec c r ev in
      let '(r2, out) := exec_all c r1 evs' in
      (r2, L [res; enc_log l] :: out)
  end.

Definition run01S (inp : sx) : sx :=
  let k := dec_cfg inp in
  let r0 := {| r_st := init_state (init_dev k) (init_cursor k); r_v := [] |} in
  let '(r, out) := exec_all (k_cfg k) r0 (k_events k) in
  L [L out; enc_bytes (st_dev (r_st r)); of_nats (map t_start (st_threads (r_st r)))].

(** ---- monitor (on the implementation's observation) ----
    clause 1: the byte range of a writer whose finalizer reported success does not hold
              the uploaded data after some later step, or in the final device contents
    clause 2: a device write outside the block's region
    clause 3: a device write of writer k outside the sectors overlapping its range
              (an empty range inside a sector counts as touching that sector)
    clause 4: allocations not in order / overlapping / beyond the end of the block
    clause 5: after NewBlockAtLocation(_, r): an allocation or a device write below r *)

Fixpoint bytes_eqb (a b : list byte) : bool :=
  match a, b with
  | [], [] => true
  | x :: a', y :: b' => Z.eqb x y && bytes_eqb a' b'
  | _, _ => false
  end.

Definition slice (l : list byte) (off len : nat) : list byte := firstn len (skipn off l).

(** what the monitor knows of a writer: declared size, data delivered so far,
    whether its finalizer has reported success *)
Record minfo := { m_size : nat; m_data : list byte; m_ok : bool; m_fin : bool }.

Definition holds (c : cfg) (starts : list nat) (dev : list byte) (ws : list minfo) : bool :=
  let fix go (k : nat) (ws : list minfo) : bool :=
    match ws with
    | [] => true
    | m :: ws' =>
        (if m_ok m then
           bytes_eqb (slice dev (c_base c * c_sector c + nth k starts 0) (m_size m)) (m_data m)
         else true) && go (S k) ws'
    end in
  go 0 ws.

Definition in_range (lo hi : nat) (w : dwrite) : bool :=
  (lo <=? fst w) && (fst w + length (snd w) <=? hi).

Definition mon_step (k : cfg01s) (starts : list nat) (ev ob : sx)
    (acc : list byte * list minfo * list Z) : list byte * list minfo * list Z :=
  let c := k_cfg k in
  let S := c_sector c in
  let '(dev, ws, bad) := acc in
  let kind := sx_nat (sx_nth ev 0) in
  let arg := sx_nat (sx_nth ev 1) in
  let res := sx_nth ob 0 in
  let log := dec_log (sx_nth ob 1) in
  let dev' := apply_writes dev log in
  let blo := c_base c * S in
  let bhi := (c_base c + c_spb c) * S in
  let bad2 := if forallb (in_range blo bhi) log then [] else [2%Z] in
  let bad5 := match k_restored k with
              | Some r => if forallb (fun w => blo + r <=? fst w) log then [] else [5%Z]
              | None => [] end in
  let bad3 :=
    match kind with
    | 1 | 2 | 3 =>
        match nth_error ws arg with
        | Some m =>
            let s := nth arg starts 0 in
            let lo := blo + s / S * S in
            let hi := blo + (s + m_size m + S - 1) / S * S in
            if forallb (in_range lo hi) log then [] else [3%Z]
        | None => match log with [] => [] | _ => [3%Z] end
        end
    | _ => []
    end in
  let ws' :=
    match kind with
    | 0 => if sx_bool (sx_nth res 0)
           then ws ++ [{| m_size := arg; m_data := []; m_ok := false; m_fin := false |}] else ws
    | 1 => match nth_error ws arg with
           | Some m => if m_fin m then ws else
                         upd ws arg {| m_size := m_size m; m_data := m_data m ++ dec_bytes (sx_nth ev 2);
                                       m_ok := false; m_fin := negb (Z.eqb (sx_Z (sx_nth res 0)) 0) |}
           | None => ws end
    | 2 | 3 => match nth_error ws arg with
               | Some m => if m_fin m then ws else
                             upd ws arg {| m_size := m_size m; m_data := m_data m;
                                           m_ok := Z.eqb (sx_Z (sx_nth res 0)) 1;
                                           m_fin := negb (Z.eqb (sx_Z (sx_nth res 0)) 0) |}
               | None => ws end
    | _ => ws
    end in
  let bad1 := if holds c starts dev' ws' then [] else [1%Z] in
  (dev', ws', bad ++ bad1 ++ bad2 ++ bad3 ++ bad5).

Fixpoint mon_steps (k : cfg01s) (starts : list nat) (evs obs : list sx)
    (acc : list byte * list minfo * list Z) : list byte * list minfo * list Z :=
  match evs, obs with
  | ev :: evs', ob :: obs' => mon_steps k starts evs' obs' (mon_step k starts ev ob acc)
  | _, _ => acc
  end.

(** allocations in order, pairwise disjoint, inside the block, at or above [lo] *)
Fixpoint allocs_ok (lo hi : nat) (starts : list nat) (ws : list minfo) : bool :=
  match starts, ws with
  | s :: starts', m :: ws' => (lo <=? s) && (s + m_size m <=? hi) && allocs_ok (s + m_size m) hi starts' ws'
  | _, _ => true
  end.

Fixpoint dedup (l : list Z) : list Z :=
  match l with
  | [] => []
  | x :: l' => if existsb (Z.eqb x) l' then dedup l' else x :: dedup l'
  end.

Definition mon01S (inp obs : sx) : list Z :=
  match obs with
  | L [A _] => []          (* panic marker: reported as disagreement *)
  | _ =>
  let k := dec_cfg inp in
  let c := k_cfg k in
  let starts := sx_nats (sx_nth obs 2) in
  let '(_, ws, bad) := mon_steps k starts (k_events k) (sx_list (sx_nth obs 0)) (init_dev k, [], []) in
  let final := dec_bytes (sx_nth obs 1) in
  let bad1 := if holds c starts final ws then [] else [1%Z] in
  let lo := match k_restored k with Some r => r | None => 0 end in
  let bad4 := if allocs_ok 0 (c_spb c * c_sector c) starts ws then [] else [4%Z] in
  let bad5 := if allocs_ok lo (c_spb c * c_sector c) starts ws then [] else
                match bad4 with [] => [5%Z] | _ => [] end in
  dedup (bad ++ bad1 ++ bad4 ++ bad5)
  end.

Definition judge01S : sx -> sx -> sx := judge_det run01S mon01S.
