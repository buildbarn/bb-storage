(** C04P, "the monitor is silent on the model" — part 2: what one [quiesce]
    does to the release bookkeeping of the block list: at most one
    NotifyPersistentStateWritten (only if a loop was about to run it: its state
    write had just returned nil), which releases exactly the recorded prefix of
    blocksToRelease, followed by at most one GetPersistentState, whose state
    lists only blocks of the list and records everything awaiting release. *)
From Coq Require Import List NArith ZArith Bool Arith Lia.
From BBS Require Import Common.Sx Persist.PBL Persist.PBLProofs Persist.Syncer Persist.SyncerProofs
  Persist.LiveActs Persist.LiveCover Persist.LiveRelease Run.R07 Run.R04P Run.R07MonBase Run.R07MonOps
  Run.R07MonC123 Run.R07MonCov1 Run.R07MonCov2.
Import ListNotations.
Local Open Scope nat_scope.

Definition wwritten (s : sys) : bool :=
  match s_r s, s_p s with
  | RW WWritten, _ => true
  | _, PW _ WWritten => true
  | _, _ => false
  end.

Definition st_regs (st : pstate) : list Z := map (fun b => fst (bs_loc b)) (snd st).

Lemma writing_state_eq s :
  writing_state s = match written_state s TR with Some st => Some st | None => written_state s TP end.
Proof. unfold writing_state, written_state. destruct (s_r s) as [| |[]]; reflexivity. Qed.

Lemma writing_written s st : writing_state s = Some st -> exists t, written_state s t = Some st.
Proof.
  rewrite writing_state_eq. destruct (written_state s TR) eqn:E; intros H; [exists TR; congruence|exists TP; exact H].
Qed.

Lemma written_writing s t st : inv3 s -> written_state s t = Some st -> writing_state s = Some st.
Proof.
  intros I3 H. rewrite writing_state_eq. destruct t; [rewrite H; reflexivity|].
  destruct (written_state s TR) eqn:E; [|exact H].
  (* both loops would hold the lock *)
  discriminate (holds_excl s TR TP I3 (writing_holds _ _ _ E) (writing_holds _ _ _ H)).
Qed.

Lemma wwritten_holds s : wwritten s = true -> r_holds s = true \/ p_holds s = true.
Proof.
  unfold wwritten, r_holds, p_holds. destruct (s_r s) as [| |[]]; auto;
    destruct (s_p s) as [| | | | | | | |k []|]; auto; discriminate.
Qed.

Lemma getstate_not_wwritten s t : inv3 s -> at_getstate t s = true -> wwritten s = false.
Proof.
  intros [_ I3] H. unfold at_getstate, wwritten, r_holds, p_holds in *.
  destruct t; destruct (s_r s) as [| |[]]; destruct (s_p s) as [| | | | | | | |k []|];
    try discriminate; try reflexivity; cbn in I3; discriminate.
Qed.

Lemma getstate_not_writing s t : inv3 s -> at_getstate t s = true -> writing_state s = None.
Proof.
  intros I3 Hg. destruct (writing_state s) as [st|] eqn:E1; [exfalso|reflexivity].
  destruct (writing_written _ _ E1) as [t1 Ht1].
  pose proof (holds_excl _ _ _ I3 (writing_holds _ _ _ Ht1) (getstate_holds _ _ Hg)) as Et. subst t1.
  destruct t; cbn [written_state at_getstate] in Ht1, Hg.
  - destruct (s_r s) as [| |[]]; discriminate.
  - destruct (s_p s) as [| | | | | | | |? []|]; discriminate.
Qed.

(** the release bookkeeping under the calls an internal step can make *)
Definition rfields (p : pbl) := (releasedLog p, toRelease p, releasing p).

Lemma act_rfields a p p' : apply_act a p = Ok p' ->
  match a with
  | ANone | ASyncStart | ASyncDone _ => rfields p' = rfields p
  | AGetState _ => releasedLog p' = releasedLog p /\ toRelease p' = toRelease p /\ releasing p' = length (toRelease p)
  | AWritten _ => releasedLog p' = releasedLog p ++ firstn (releasing p) (toRelease p)
                  /\ toRelease p' = skipn (releasing p) (toRelease p)
  | _ => True
  end.
Proof.
  intros H. pose proof (act_rel _ _ _ H) as F. unfold rfields.
  destruct a; auto; try (destruct F as [F1 [F2 [F3 _]]]; congruence).
  - destruct F as [F1 [F2 [F3 _]]]. auto.
  - destruct F as [F1 [_ [F3 _]]]. auto.
Qed.

Section Traj.
Variable cfg : config.
Variable alloc : loc -> Z -> bool.
Variable oldest : N.
Variable init : list bstate.
Variable t0 : N.
Notation good := (good cfg alloc oldest init t0).

Definition rel_upto (x1 xc : xst) (k : nat) : Prop :=
  releasedLog (s_pbl (x_sys xc)) = releasedLog (s_pbl (x_sys x1)) ++ firstn k (toRelease (s_pbl (x_sys x1)))
  /\ toRelease (s_pbl (x_sys xc)) = skipn k (toRelease (s_pbl (x_sys x1))).

Definition k_of (x1 : xst) : nat := if wwritten (x_sys x1) then releasing (s_pbl (x_sys x1)) else 0.

Record rtj (x1 xc : xst) : Prop := mkRtj {
  rj_offs : offs (s_pbl (x_sys xc)) = offs (s_pbl (x_sys x1));
  rj_cases :
    (wwritten (x_sys xc) = true /\ rfields (s_pbl (x_sys xc)) = rfields (s_pbl (x_sys x1))
     /\ x_nwr xc = x_nwr x1 /\ writing_state (x_sys xc) = None /\ wwritten (x_sys x1) = true
     /\ writing_state (x_sys x1) = None)
    \/ (wwritten (x_sys xc) = false /\ rel_upto x1 xc (k_of x1) /\ x_nwr xc = x_nwr x1
        /\ writing_state (x_sys xc) = writing_state (x_sys x1)
        /\ (writing_state (x_sys x1) <> None -> releasing (s_pbl (x_sys xc)) = releasing (s_pbl (x_sys x1))))
    \/ (wwritten (x_sys xc) = false /\ rel_upto x1 xc (k_of x1) /\ x_nwr xc = S (x_nwr x1)
        /\ writing_state (x_sys x1) = None
        /\ exists st, writing_state (x_sys xc) = Some st
             /\ (forall r, In r (st_regs st) -> In r (offs (s_pbl (x_sys xc))))
             /\ releasing (s_pbl (x_sys xc)) = length (toRelease (s_pbl (x_sys xc))))
}.

Lemma rel_upto_0 x : rel_upto x x 0.
Proof. unfold rel_upto. cbn. rewrite app_nil_r. auto. Qed.

Lemma rtj_refl x1 : inv3 (x_sys x1) -> rtj x1 x1.
Proof.
  intros I3. constructor; [reflexivity|].
  destruct (wwritten (x_sys x1)) eqn:Ew.
  - assert (writing_state (x_sys x1) = None) as Hn.
    { destruct (writing_state (x_sys x1)) as [st|] eqn:E; [exfalso|reflexivity].
      destruct (writing_written _ _ E) as [t Ht]. pose proof (writing_holds _ _ _ Ht) as H1.
      destruct I3 as [_ I3]. unfold wwritten in Ew. unfold written_state in Ht. unfold r_holds, p_holds in *.
      destruct t; destruct (s_r (x_sys x1)) as [| |[]]; destruct (s_p (x_sys x1)) as [| | | | | | | |k []|];
        try discriminate; cbn in *; try discriminate. }
    left. splits; auto.
  - right. left. unfold k_of. rewrite Ew. splits; auto. apply rel_upto_0.
Qed.

Ltac fin_frame :=
  repeat split; intros; cbn in *; try reflexivity; try discriminate; try congruence;
  repeat match goal with |- context [match ?x with _ => _ end] => destruct x end;
  try reflexivity; try discriminate; try congruence.

Lemma step_class_frame s t a s' : inv1 s -> t_internal cfg s t = true -> step cfg s (EStep t a) = Some (Ok s') ->
  a = internal_ans ->
  (wwritten s' = true -> wwritten s = true) /\
  (act_of s (EStep t a) <> AWritten t -> wwritten s' = wwritten s) /\
  (act_of s (EStep t a) <> AGetState t -> writing_state s' = writing_state s).
Proof.
  intros II Hi Hs ->. destruct t; cbn [step t_internal act_of] in *.
  - pose proof (rstep_frame _ _ _ _ II Hs) as Ep. pose proof (rstep_shape _ _ _ _ Hs) as Sh.
    unfold wwritten, writing_state. rewrite Ep. revert Sh Hi. unfold r_internal, r_in_io, r_in_timer.
    destruct (s_r s) as [|c|w]; intros Sh Hi.
    + destruct Sh as [c ->]. fin_frame.
    + rewrite Sh. fin_frame.
    + destruct Sh as [[w' [-> Sw]]|[-> ->]]; [|fin_frame].
      destruct w; cbn in Hi; try discriminate Hi.
      * subst w'. fin_frame.
      * destruct Sw as [st ->]. fin_frame.
      * destruct Sw.
  - pose proof (pstep_frame _ _ _ _ II Hs) as Er. destruct (pstep_internal _ _ _ II Hi Hs) as [Hpi _].
    unfold wwritten, writing_state. rewrite Er. destruct Hpi; fin_frame.
Qed.

Lemma rtj_step x1 xc t x' : rtj x1 xc -> good (x_sys xc) -> t_internal cfg (x_sys xc) t = true ->
  tstep cfg t internal_ans xc = Some (Ok x') -> rtj x1 x'.
Proof.
  intros [J1 J2] G Hi Ht. destruct (tstep_ok _ _ _ _ _ Ht) as [Hs [_ [Hwr _]]].
  pose proof (good_inv1 _ _ _ _ _ _ G) as II.
  destruct (reachable_inv_all _ _ _ _ _ _ (proj1 G)) as [_ [_ [I3 _]]].
  pose proof (step_act _ _ _ _ Hs) as Ha.
  set (a := act_of (x_sys xc) (EStep t internal_ans)) in *.
  destruct (step_class_frame _ _ _ _ II Hi Hs eq_refl) as [F1 [F2 F3]]. fold a in F2, F3.
  pose proof (act_rfields _ _ _ Ha) as Fr. pose proof (int_fields _ _ _ Ha) as Fo.
  assert (Hcls : a = ANone \/ a = ASyncStart \/ (exists b, a = ASyncDone b) \/ a = AWritten t \/ a = AGetState t).
  { unfold a, act_of. destruct t.
    - destruct (s_r (x_sys xc)) as [| |[]]; cbn; auto.
    - destruct (s_p (x_sys xc)) as [| | | |k|k f|k f|k f d|k w|]; cbn; auto; [eauto|destruct w; cbn; auto]. }
  assert (Hgs : at_getstate t (x_sys xc) = true <-> a = AGetState t) by (symmetry; apply act_getstate).
  assert (Hoffs : offs (s_pbl (x_sys x')) = offs (s_pbl (x_sys xc))).
  { destruct Hcls as [E|[E|[[b E]|[E|E]]]]; rewrite E in Fo; exact (proj1 Fo). }
  assert (Hnwr0 : a <> AGetState t -> x_nwr x' = x_nwr xc).
  { intros Hng. rewrite Hwr. destruct (at_getstate t (x_sys xc)); [exfalso; apply Hng, Hgs; reflexivity|reflexivity]. }
  constructor; [congruence|].
  destruct Hcls as [E|[E|[[b E]|[E|E]]]].
  1-3: (* the step changes nothing of what rtj reads of the second state *)
       rewrite E in Fr; unfold rfields, rel_upto in *; injection Fr as R1 R2 R3;
       rewrite F2, F3, Hnwr0, R1, R2, R3, Hoffs by (rewrite E; discriminate); exact J2.
  - (* NotifyPersistentStateWritten *)
    rewrite E in Fr. destruct Fr as [R1 R2].
    assert (Hng : a <> AGetState t) by (rewrite E; discriminate).
    pose proof (Hnwr0 Hng) as Hnwr.
    assert (Hww : wwritten (x_sys xc) = true).
    { unfold a, act_of in E. unfold wwritten. destruct t.
      - destruct (s_r (x_sys xc)) as [| |[]]; try discriminate E. reflexivity.
      - destruct (s_p (x_sys xc)) as [| | | | | | | |k []|]; try discriminate E. destruct (s_r (x_sys xc)) as [| |[]]; reflexivity. }
    assert (Hww' : wwritten (x_sys x') = false).
    { destruct (wwritten (x_sys x')) eqn:E'; [exfalso|reflexivity].
      (* after the step only the other loop could be at WWritten; both held the lock *)
      destruct t; cbn [step] in Hs; unfold a, act_of in E.
      - pose proof (rstep_frame _ _ _ _ II Hs) as Ep. pose proof (rstep_shape _ _ _ _ Hs) as Sh. revert Sh E.
        destruct (s_r (x_sys xc)) as [| |[]] eqn:Er; intros Sh E; try discriminate E.
        destruct Sh as [[w' [_ []]]|[_ Sh]]. unfold wwritten in E'. rewrite Sh, Ep in E'.
        destruct I3 as [_ I3]. unfold r_holds, p_holds in I3. rewrite Er in I3.
        destruct (s_p (x_sys xc)) as [| | | | | | | |k []|]; try discriminate E'. cbn in I3. discriminate.
      - pose proof (pstep_frame _ _ _ _ II Hs) as Er. destruct (pstep_internal _ _ _ II Hi Hs) as [Hpi _].
        unfold wwritten in E'. rewrite Er in E'. destruct I3 as [_ I3]. unfold r_holds, p_holds in I3.
        revert E E' I3. destruct Hpi; intros E E' I3; try discriminate E;
          (destruct (s_r (x_sys xc)) as [| |[]]; try discriminate E'; cbn in I3; discriminate). }
    rewrite (F3 Hng), Hnwr, Hww'.
    destruct J2 as [[A1 [A2 [A3 [A4 [A5 A6]]]]]|[[B1 _]|[C1 _]]]; [|congruence|congruence].
    right. left. unfold rfields in A2. injection A2 as R1' R2' R3'. unfold k_of. rewrite A5.
    splits; auto.
    + split; [rewrite R1, R1', R2', R3'; reflexivity|rewrite R2, R2', R3'; reflexivity].
    + congruence.
    + intros H. exfalso. apply H. exact A6.
  - (* GetPersistentState *)
    rewrite E in Fr. destruct Fr as [R1 [R2 R3]].
    assert (Hnw : a <> AWritten t) by (rewrite E; discriminate).
    assert (Hnwr : x_nwr x' = S (x_nwr xc)).
    { rewrite Hwr. rewrite (proj2 Hgs E). reflexivity. }
    destruct (getstate_step _ _ _ _ _ Hs E) as [p' [st [Hgps [Hw [Hp' _]]]]].
    pose proof (step_inv3 _ _ _ _ I3 Hs) as I3'.
    pose proof (written_writing _ _ _ I3' Hw) as Hws.
    rewrite (F2 Hnw), Hnwr.
    destruct J2 as [[A1 _]|[[B1 [[B2a B2b] [B3 [B4 B5]]]]|[C1 [_ [_ [_ [st0 [C5 _]]]]]]]].
    + (* a loop at WWritten holds the lock: no GetPersistentState *)
      exfalso. rewrite (getstate_not_wwritten _ _ I3 (proj2 Hgs E)) in A1. discriminate.
    + right. right. 
      assert (Hnone : writing_state (x_sys x1) = None).
      { rewrite <- B4. exact (getstate_not_writing _ _ I3 (proj2 Hgs E)). }
      split; [exact B1|]. split; [unfold rel_upto; split; congruence|]. split; [congruence|]. split; [exact Hnone|].
      exists st. split; [exact Hws|]. split; [|congruence].
        intros r Hr. unfold st_regs in Hr. apply in_map_iff in Hr. destruct Hr as [bs [<- Hbs]].
        apply In_nth_error in Hbs. destruct Hbs as [j Hj].
        destruct (gps_fields _ _ _ Hgps) as [Hc [_ [_ [_ [_ [_ [_ Hloop]]]]]]].
        destruct (gps_prefix _ _ _ _ _ _ _ Hloop Hj) as [bb [Hbb [Hl _]]].
        rewrite Hoffs. unfold offs. rewrite Hl. apply in_map_iff. exists bb. split; [reflexivity|].
        eapply nth_error_In; eauto.
    + exfalso. rewrite (getstate_not_writing _ _ I3 (proj2 Hgs E)) in C5. discriminate.
Qed.

Lemma quiesce_rtj f rw x1 x2 : good (x_sys x1) -> quiesce cfg f rw x1 = Ok x2 -> rtj x1 x2.
Proof.
  intros G H. destruct (reachable_inv_all _ _ _ _ _ _ (proj1 G)) as [_ [_ [I3 _]]].
  destruct (quiesce_ind cfg alloc oldest init t0 (rtj x1)
              (fun x t x' Q Gx Hi Ht => rtj_step x1 x t x' Q Gx Hi Ht) f rw x1 x2 G (rtj_refl x1 I3) H) as [Q _].
  exact Q.
Qed.

End Traj.
