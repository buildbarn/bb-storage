(** C03, monitor versus model — part 8: the monitor's acknowledged COPIES are acknowledgements of
    the model that are not evicted, and the monitor's view of the block list IS the model's list.

    The monitor records, per acknowledged upload, the key and the location of the block the upload's
    BlockList.Put went into ([m_copies]); it drops a copy when a PopFront at full occupancy removes the
    block at that location.  The model's ghost records, per finalizer that returned OK, an [ack] with
    the absolute block index and the BlockReference written into the index record.  The link between
    the two is made by a second bookkeeping [lst] that runs alongside the monitor on the history
    (which Put belongs to which upload slot, which finalizer returned OK in the current op segment,
    which reference each copy's finalizer reported) and a decidable check [l_check] in three parts:
      - every PopFront happens at full occupancy (old+current+new+1 blocks: the rotation of the
        old/current/new map — the only eviction the monitor excuses);
      - an upload that the monitor turns into a copy had, in its op segment and with no PopFront since,
        a finalizer that returned OK, and that finalizer is the one of the Put recorded for its slot;
      - no second restore entry.
    Invariant [Lk] (for every accepted history, every interleaving): [m_live] is the list of the
    locations of the model's blocks; every copy made in this incarnation has an ack of the model with
    the reference its finalizer reported, NOT evicted, whose block is at the copy's location.
    [mon03_owed_copies_resolve]: at the end of the incarnation, and if
    the monitor carries the copy into the next incarnation as an obligation, the state on the medium
    covers that ack and lists its block, so the reference resolves on the restarted list. *)
From Coq Require Import List NArith ZArith Bool Arith Lia.
From BBS Require Import Common.Sx Persist.PBL Persist.PBLProofs Persist.Syncer Persist.SyncerProofs
  Persist.Shutdown Persist.ShutdownArith Persist.ShutdownProofs Persist.ShutdownOrder Run.R03 Run.R03MonGhost
  Run.R03MonFields Run.R03MonStoreFields Run.R03MonReplay Run.R03MonList Run.R03Mon Run.R03MonObs Run.R03MonInherit.
Import ListNotations.
Local Open Scope nat_scope.

Lemma assoc_nat_remove_ne {A} k k' (l : list (nat * A)) : k <> k' -> assoc_nat k (remove_nat k' l) = assoc_nat k l.
Proof.
  intros Hne. unfold remove_nat. induction l as [|[j v] l IH]; [reflexivity|]. cbn [filter fst].
  destruct (Nat.eqb_spec k' j) as [->|Hj]; cbn [negb].
  - cbn [assoc_nat]. destruct (Nat.eqb_spec k j); [congruence|exact IH].
  - cbn [assoc_nat]. rewrite IH. reflexivity.
Qed.

Lemma assoc_nat_remove_eq {A} k (l : list (nat * A)) : assoc_nat k (remove_nat k l) = None.
Proof.
  unfold remove_nat. induction l as [|[j v] l IH]; [reflexivity|]. cbn [filter fst].
  destruct (Nat.eqb_spec k j) as [->|Hj]; cbn [negb]; [exact IH|].
  cbn [assoc_nat]. destruct (Nat.eqb_spec k j); [congruence|exact IH].
Qed.

Lemma clear_nth_length {A} (l : list (option A)) : forall k, length (clear_nth l k) = length l.
Proof. induction l as [|x l IH]; intros [|k]; cbn; auto. Qed.

Lemma clear_nth_some {A} (l : list (option A)) : forall k i v, nth_error (clear_nth l k) i = Some (Some v) ->
  nth_error l i = Some (Some v).
Proof.
  induction l as [|x l IH]; intros [|k] [|i] v H; cbn in *; try discriminate; auto.
  eapply IH; eauto.
Qed.

Lemma map_fst_filter {A B} (P : A -> bool) (l : list (A * B)) :
  map fst (filter (fun cr => P (fst cr)) l) = filter P (map fst l).
Proof.
  induction l as [|[a b] l IH]; [reflexivity|]. cbn [filter map fst]. destruct (P a); cbn [map fst]; rewrite IH; reflexivity.
Qed.

Lemma nth_error_app_some {A} (l l' : list A) i v : nth_error l i = Some v -> nth_error (l ++ l') i = Some v.
Proof. intros H. rewrite nth_error_app1; [exact H|]. apply nth_error_Some. congruence. Qed.

Definition rref : Type := (N * N * N)%type.   (* (EpochID, BlocksFromLast, seed) reported by a finalizer entry *)

Record lst := mkL {
  l_puts : list (option Z);      (* k-th BlockList.Put of the incarnation: location of its block *)
  l_slot : list (nat * nat);     (* upload slot -> number of its Put *)
  l_fin : option (nat * rref);   (* latest finalizer of the current op segment that returned OK, no PopFront since *)
  l_cr : list (copy * rref)      (* the monitor's copies with the reference their finalizer reported *)
}.

Definition ref_of (o : option (nat * rref)) : rref := match o with Some (_, r) => r | None => (0, 0, 0)%N end.

Definition makes_copy (m : mst) (x : sx) : option (nat * Z) :=
  if is_upres m x && (res_code x =? 0)%Z && negb (m_final m) then
    match assoc_nat (op_slot m) (m_upl m) with Some (k, Some loc) => Some (k, loc) | _ => None end
  else None.

Definition l_step (cfgsx : sx) (m : mst) (l : lst) (x : sx) : lst :=
  if (tag x =? 19)%Z then mkL (l_puts l) (l_slot l) None (l_cr l)
  else if (tag x =? 2)%Z then
    mkL (l_puts l) (l_slot l) None
        (match m_live m with
         | hd :: _ => if Nat.eqb (length (m_live m)) (full_count cfgsx)
                      then filter (fun cr => negb (Z.eqb (c_loc (fst cr)) hd)) (l_cr l) else l_cr l
         | [] => l_cr l
         end)
  else if (tag x =? 3)%Z then
    mkL (l_puts l ++ [nth_error (m_live m) (sx_nat (sx_nth x 1))])
        (if (tag (m_op m) =? 1)%Z then (op_slot m, length (l_puts l)) :: remove_nat (op_slot m) (l_slot l) else l_slot l)
        (l_fin l) (l_cr l)
  else if (tag x =? 4)%Z then
    mkL (l_puts l) (l_slot l)
        (if (sx_Z (sx_nth x 2) =? 0)%Z
         then Some (sx_nat (sx_nth x 1), (sx_N (sx_nth x 4), sx_N (sx_nth x 5), sx_N (sx_nth x 6))) else l_fin l)
        (l_cr l)
  else if is_upres m x then
    mkL (l_puts l) (remove_nat (op_slot m) (l_slot l)) (l_fin l)
        (match makes_copy m x with Some (k, loc) => (mkCopy k loc false, ref_of (l_fin l)) :: l_cr l | None => l_cr l end)
  else l.

Definition l_check (cfgsx : sx) (m : mst) (l : lst) (x : sx) : bool :=
  negb (tag x =? 0)%Z &&
  (if (tag x =? 2)%Z then match m_live m with [] => true | _ => Nat.eqb (length (m_live m)) (full_count cfgsx) end
   else match makes_copy m x with
        | Some _ => match l_fin l, assoc_nat (op_slot m) (l_slot l) with
                    | Some (kk, _), Some kk' => Nat.eqb kk kk'
                    | _, _ => false
                    end
        | None => true
        end).

Definition loc_at (s : sys) (abs : nat) : option Z := option_map fst (nth_error (locs (s_pbl s)) (abs - tr s)).

Definition ack_for (s : sys) (gx : gsys) (ref : rref) (loc : option Z) : Prop :=
  exists a, In a (g_acks (gs_g gx)) /\ a_ref a = (fst (fst ref), snd (fst ref)) /\ a_seed a = snd ref /\
            tr s <= a_abs a /\ forall lo, loc = Some lo -> loc_at s (a_abs a) = Some lo.

Record Lkg (scope : copy -> Prop) (m : mst) (l : lst) (s : sys) (gx : gsys) : Prop := mkLk {
  lk_live : m_live m = map fst (locs (s_pbl s));
  lk_len : length (l_puts l) = length (s_uploads s);
  lk_put : forall kk lo abs size, nth_error (l_puts l) kk = Some (Some lo) ->
             nth_error (s_uploads s) kk = Some (Some (PutAt abs, size)) -> abs < tr s \/ loc_at s abs = Some lo;
  lk_fin : forall kk ref, l_fin l = Some (kk, ref) ->
             exists lo, nth_error (l_puts l) kk = Some lo /\ ack_for s gx ref lo;
  lk_cr : map fst (l_cr l) = m_copies m;
  lk_ack : forall c ref, In (c, ref) (l_cr l) -> scope c -> ack_for s gx ref (Some (c_loc c));
  lk_slot : forall slot k lo, assoc_nat slot (m_upl m) = Some (k, lo) ->
              exists kk, assoc_nat slot (l_slot l) = Some kk /\ nth_error (l_puts l) kk = Some lo
}.

Lemma ack_for_frame s gx s' gx' ref lo : tr s' = tr s -> locs (s_pbl s') = locs (s_pbl s) ->
  (forall a, In a (g_acks (gs_g gx)) -> In a (g_acks (gs_g gx'))) -> ack_for s gx ref lo -> ack_for s' gx' ref lo.
Proof.
  intros Ht Hl Ha [a [H1 [H2 [H3 [H4 H5]]]]]. exists a. unfold loc_at in *. rewrite Ht, Hl. auto.
Qed.

Section Scope.
Variable scope : copy -> Prop.
Local Notation Lk := (Lkg scope).

Lemma Lk_mon_same m m' l s gx : m_live m' = m_live m -> m_upl m' = m_upl m -> m_copies m' = m_copies m ->
  Lk m l s gx -> Lk m' l s gx.
Proof. intros H1 H2 H3 [A B C D E F G0]. constructor; auto; rewrite ?H1, ?H2, ?H3; auto. Qed.

Lemma gpath_quiet_frame cfg s gx s' gx' : gpath cfg (fun _ ev => quiet ev /\ notfin ev) s gx s' gx' ->
  tr s' = tr s /\ locs (s_pbl s') = locs (s_pbl s) /\ s_uploads s' = s_uploads s /\
  g_acks (gs_g gx') = g_acks (gs_g gx).
Proof.
  induction 1 as [|s x e s1 s' x' [Hq Hn] Hs _ [I1 [I2 [I3 I4]]]]; [auto|].
  destruct (quiet_frame _ _ _ _ Hq Hs) as [Q1 [Q2 Q3]].
  rewrite I1, I2, I3, I4, Q1, Q2, Q3, (gstep_acks_same _ _ _ _ Hn). auto.
Qed.

Lemma quiet_notfin ev : quiet ev -> notfin ev.
Proof. destruct ev; cbn; try contradiction; intros _ k b sd H; discriminate. Qed.

Lemma loc_at_app s s' abs lo l1 : tr s' = tr s -> locs (s_pbl s') = locs (s_pbl s) ++ l1 ->
  loc_at s abs = Some lo -> loc_at s' abs = Some lo.
Proof.
  unfold loc_at. intros Ht Hl H. rewrite Ht, Hl.
  destruct (nth_error (locs (s_pbl s)) (abs - tr s)) as [v|] eqn:E; [|discriminate].
  rewrite (nth_error_app_some _ _ _ _ E). exact H.
Qed.

Lemma ack_for_app s gx s' ref lo l1 : tr s' = tr s -> locs (s_pbl s') = locs (s_pbl s) ++ l1 ->
  ack_for s gx ref lo -> ack_for s' gx ref lo.
Proof.
  intros Ht Hl [a [H1 [H2 [H3 [H4 H5]]]]]. exists a. rewrite Ht. splits; auto.
  intros lo0 E. eapply loc_at_app; eauto.
Qed.

(** PushBack, the finalizer, and the steps that touch neither the list nor the pending Puts *)
Lemma Lk_ext m m' l s gx s' gx' l1 : tr s' = tr s -> locs (s_pbl s') = locs (s_pbl s) ++ l1 ->
  length (s_uploads s') = length (s_uploads s) ->
  (forall kk v, nth_error (s_uploads s') kk = Some (Some v) -> nth_error (s_uploads s) kk = Some (Some v)) ->
  (forall a, In a (g_acks (gs_g gx)) -> In a (g_acks (gs_g gx'))) ->
  m_live m' = m_live m ++ map fst l1 -> m_upl m' = m_upl m -> m_copies m' = m_copies m ->
  Lk m l s gx -> Lk m' l s' gx'.
Proof.
  intros Ht Hl Hn Hu Ha M1 M2 M3 [A B C D E F G0].
  assert (Hack : forall ref lo, ack_for s gx ref lo -> ack_for s' gx' ref lo).
  { intros ref lo H. apply (ack_for_frame s' gx); auto. eapply ack_for_app; eauto. }
  constructor.
  - rewrite M1, Hl, map_app, A. reflexivity.
  - rewrite Hn. exact B.
  - intros kk lo abs size H1 H2. rewrite Ht.
    destruct (C kk lo abs size H1 (Hu _ _ H2)) as [H|H]; [left; exact H|right; eapply loc_at_app; eauto].
  - intros kk ref H. destruct (D kk ref H) as [lo [H1 H2]]. exists lo. auto.
  - rewrite M3. exact E.
  - intros c ref H1 H2. auto.
  - rewrite M2. exact G0.
Qed.

Lemma Lk_frame m l s gx s' gx' : tr s' = tr s -> locs (s_pbl s') = locs (s_pbl s) -> s_uploads s' = s_uploads s ->
  (forall a, In a (g_acks (gs_g gx)) -> In a (g_acks (gs_g gx'))) -> Lk m l s gx -> Lk m l s' gx'.
Proof. intros Ht Hl Hu Ha. apply (Lk_ext m m l s gx s' gx' []); rewrite ?Hu, ?Hl, ?app_nil_r; auto. Qed.

Lemma loc_at_pop s s' b0 abs lo : tr s' = S (tr s) -> locs (s_pbl s) = b0 :: locs (s_pbl s') ->
  tr s < abs -> loc_at s abs = Some lo -> loc_at s' abs = Some lo.
Proof.
  unfold loc_at. intros Ht Hl Hlt H. rewrite Ht. rewrite Hl in H.
  replace (abs - tr s) with (S (abs - S (tr s))) in H by lia. exact H.
Qed.

Lemma Lk_pop cfgsx m m' l s gx s' b0 : tr s' = S (tr s) -> locs (s_pbl s) = b0 :: locs (s_pbl s') ->
  s_uploads s' = s_uploads s -> Nat.eqb (length (m_live m)) (full_count cfgsx) = true ->
  m_live m' = tl (m_live m) -> m_upl m' = m_upl m ->
  m_copies m' = filter (fun c => negb (Z.eqb (c_loc c) (fst b0))) (m_copies m) ->
  Lk m l s gx ->
  Lk m' (mkL (l_puts l) (l_slot l) None (filter (fun cr => negb (Z.eqb (c_loc (fst cr)) (fst b0))) (l_cr l))) s' gx.
Proof.
  intros Ht Hl Hu Hfull M1 M2 M3 [A B C D E F G0]. constructor; cbn [l_puts l_slot l_fin l_cr].
  - rewrite M1, A, Hl. reflexivity.
  - rewrite Hu. exact B.
  - intros kk lo abs size H1 H2. rewrite Hu in H2. rewrite Ht.
    destruct (C kk lo abs size H1 H2) as [H|H]; [left; lia|].
    destruct (Nat.lt_ge_cases abs (S (tr s))) as [Hlt|Hge]; [left; exact Hlt|]. right. eapply loc_at_pop; eauto.
  - intros kk ref H. discriminate.
  - rewrite M3, <- E. apply (map_fst_filter (fun c => negb (Z.eqb (c_loc c) (fst b0)))).
  - intros c ref Hin Hold. apply filter_In in Hin. destruct Hin as [Hin Hk]. cbn [fst] in Hk.
    destruct (F c ref Hin Hold) as [a [H1 [H2 [H3 [H4 H5]]]]].
    assert (Hne : a_abs a <> tr s).
    { (* the kept copy's block is not the popped one *)
      intros Heq. specialize (H5 _ eq_refl). unfold loc_at in H5. rewrite Heq, Nat.sub_diag, Hl in H5. cbn in H5.
      injection H5 as H6. rewrite H6, Z.eqb_refl in Hk. discriminate. }
    exists a. rewrite Ht. splits; auto; [lia|].
    intros lo [= <-]. eapply loc_at_pop; eauto. lia.
  - rewrite M2. exact G0.
Qed.

Lemma Lk_put m m' l s gx s' idx size tok (slots' : list (nat * nat)) :
  s_pbl s' = s_pbl s -> s_uploads s' = s_uploads s ++ [Some (tok, size)] ->
  (forall abs, tok = PutAt abs -> abs = tr s + idx) ->
  m_live m' = m_live m -> m_copies m' = m_copies m ->
  (* either the op is not the start of an upload, or the slot's Put is recorded on both sides *)
  ((m_upl m' = m_upl m /\ slots' = l_slot l) \/
   exists slot key, m_upl m' = (slot, (key, nth_error (m_live m) idx)) :: remove_nat slot (m_upl m) /\
                    slots' = (slot, length (l_puts l)) :: remove_nat slot (l_slot l)) ->
  Lk m l s gx ->
  Lk m' (mkL (l_puts l ++ [nth_error (m_live m) idx]) slots' (l_fin l) (l_cr l)) s' gx.
Proof.
  intros Hp Hu Htok M1 M3 Hslots [A B C D E F G0].
  assert (Ht : tr s' = tr s) by (unfold tr; rewrite Hp; reflexivity).
  assert (Hl : locs (s_pbl s') = locs (s_pbl s)) by (rewrite Hp; reflexivity).
  assert (Hla : forall abs, loc_at s' abs = loc_at s abs) by (intros abs; unfold loc_at; rewrite Ht, Hl; reflexivity).
  assert (Hack : forall ref lo, ack_for s gx ref lo -> ack_for s' gx ref lo).
  { intros ref lo. apply ack_for_frame; auto. }
  constructor; cbn [l_puts l_slot l_fin l_cr].
  - rewrite M1, Hl. exact A.
  - rewrite Hu, !app_length, B. reflexivity.
  - intros kk lo abs sz H1 H2. rewrite Ht, Hla. rewrite Hu in H2.
    destruct (Nat.lt_ge_cases kk (length (l_puts l))) as [Hlt|Hge].
    + rewrite nth_error_app1 in H1 by exact Hlt. rewrite nth_error_app1 in H2 by (rewrite <- B; exact Hlt). eauto.
    + (* the new Put: both tables end at the same position *)
      rewrite nth_error_app2 in H1 by exact Hge. rewrite nth_error_app2, <- B in H2 by (rewrite <- B; exact Hge).
      destruct (kk - length (l_puts l)) as [|[|j]]; try discriminate. injection H1 as H3. injection H2 as -> ->.
      rewrite (Htok abs eq_refl). right. unfold loc_at. replace (tr s + idx - tr s) with idx by lia.
      rewrite <- H3, A, nth_error_map. reflexivity.
  - intros kk ref H. destruct (D kk ref H) as [lo [H1 H2]]. exists lo. split; [apply nth_error_app_some; exact H1|auto].
  - rewrite M3. exact E.
  - intros c ref H1 H2. auto.
  - intros slot k lo Hs. destruct Hslots as [[M2 ->]|[slot0 [key [M2 ->]]]]; rewrite M2 in Hs.
    + destruct (G0 slot k lo Hs) as [kk [K1 K2]]. exists kk. split; [exact K1|apply nth_error_app_some; exact K2].
    + cbn [assoc_nat] in *. destruct (Nat.eqb_spec slot slot0) as [->|Hne].
      * injection Hs as <- <-. exists (length (l_puts l)). split; [reflexivity|].
        rewrite nth_error_app2, Nat.sub_diag by lia. reflexivity.
      * rewrite assoc_nat_remove_ne in Hs by exact Hne. rewrite assoc_nat_remove_ne by exact Hne.
        destruct (G0 slot k lo Hs) as [kk [K1 K2]]. exists kk. split; [exact K1|apply nth_error_app_some; exact K2].
Qed.

Lemma l_eta l : mkL (l_puts l) (l_slot l) (l_fin l) (l_cr l) = l.
Proof. destruct l; reflexivity. Qed.

Lemma Lk_fin m m' l s gx s' gx' k fin' :
  tr s' = tr s -> locs (s_pbl s') = locs (s_pbl s) -> s_uploads s' = clear_nth (s_uploads s) k ->
  (forall a, In a (g_acks (gs_g gx)) -> In a (g_acks (gs_g gx'))) ->
  m_live m' = m_live m -> m_upl m' = m_upl m -> m_copies m' = m_copies m ->
  (fin' = l_fin l \/
   exists ref abs size a, fin' = Some (k, ref) /\ nth_error (s_uploads s) k = Some (Some (PutAt abs, size)) /\
     tr s <= abs /\ In a (g_acks (gs_g gx')) /\ a_abs a = abs /\
     a_ref a = (fst (fst ref), snd (fst ref)) /\ a_seed a = snd ref) ->
  Lk m l s gx -> Lk m' (mkL (l_puts l) (l_slot l) fin' (l_cr l)) s' gx'.
Proof.
  intros Ht Hl Hu Ha M1 M2 M3 Hfin HL.
  (* all fields but [lk_fin] are those of the untouched [l] *)
  assert (HL' : Lk m' l s' gx').
  { apply (Lk_ext m m' l s gx s' gx' []); rewrite ?Hu, ?app_nil_r; auto using clear_nth_length.
    intros kk v. apply clear_nth_some. }
  destruct Hfin as [->|[ref [abs [size [a [-> [Hup [Hge [Hin [Habs [Hr Hsd]]]]]]]]]]]; [rewrite l_eta; exact HL'|].
  destruct HL as [_ B C _ _ _ _]. destruct HL' as [A' B' C' _ E' F' G']. constructor; cbn [l_puts l_slot l_fin l_cr]; auto.
  intros kk ref0 [= <- <-].
  assert (Hlt : k < length (l_puts l)) by (rewrite B; apply nth_error_Some; congruence).
  destruct (nth_error (l_puts l) k) as [lo|] eqn:Ep; [|apply nth_error_None in Ep; lia].
  exists lo. split; [reflexivity|]. exists a. rewrite Ht, Habs. splits; auto.
  intros lo0 ->. destruct (C k lo0 abs size Ep Hup) as [Hc|Hc]; [lia|]. unfold loc_at in *. rewrite Ht, Hl. exact Hc.
Qed.

Lemma Lk_upres m m' l s gx slot (mk : option (nat * Z)) :
  m_live m' = m_live m -> m_upl m' = remove_nat slot (m_upl m) ->
  (match mk with
   | Some (k, loc) => m_copies m' = mkCopy k loc false :: m_copies m /\
                      assoc_nat slot (m_upl m) = Some (k, Some loc) /\
                      exists kk ref, l_fin l = Some (kk, ref) /\ assoc_nat slot (l_slot l) = Some kk
   | None => m_copies m' = m_copies m
   end) ->
  Lk m l s gx ->
  Lk m' (mkL (l_puts l) (remove_nat slot (l_slot l)) (l_fin l)
             (match mk with Some (k, loc) => (mkCopy k loc false, ref_of (l_fin l)) :: l_cr l | None => l_cr l end)) s gx.
Proof.
  intros M1 M2 Hmk [A B C D E F G0]. constructor; cbn [l_puts l_slot l_fin l_cr].
  - rewrite M1. exact A.
  - exact B.
  - exact C.
  - exact D.
  - destruct mk as [[k loc]|]; [destruct Hmk as [M3 _]|]; rewrite ?M3, ?Hmk; cbn [map fst]; rewrite E; reflexivity.
  - intros c ref Hin Hold. destruct mk as [[k loc]|]; [|auto].
    destruct Hin as [Heq|Hin]; [|auto]. inversion Heq; subst c ref. cbn [c_loc].
    destruct Hmk as [_ [Hs [kk [ref [Hf Hk]]]]]. rewrite Hf. cbn [ref_of].
    destruct (G0 slot k (Some loc) Hs) as [kk2 [K1 K2]]. rewrite Hk in K1. inversion K1; subst kk2.
    destruct (D kk ref Hf) as [lo [H1 H2]]. rewrite K2 in H1. inversion H1; subst lo. exact H2.
  - intros s0 k lo Hs. rewrite M2 in Hs.
    destruct (Nat.eq_dec s0 slot) as [->|Hne]; [rewrite assoc_nat_remove_eq in Hs; discriminate|].
    rewrite assoc_nat_remove_ne in Hs by exact Hne. rewrite assoc_nat_remove_ne by exact Hne. exact (G0 _ _ _ Hs).
Qed.

Section Facts.
Variables (cfg : config) (bs : Z).

Lemma tag1_facts x e x' gx gx' : tag e = 1%Z -> replay_entry cfg bs x e = Some x' -> post cfg bs e x gx x' gx' ->
  gx' = gx /\ tr (x_sys x') = tr (x_sys x) /\ s_uploads (x_sys x') = s_uploads (x_sys x) /\
  locs (s_pbl (x_sys x')) = locs (s_pbl (x_sys x)) ++
    (if (sx_Z (sx_nth e 1) =? 0)%Z then [(sx_Z (sx_nth e 2), bs)] else []).
Proof.
  intros E H [_ [_ [_ [_ [_ [_ [_ [_ P]]]]]]]]. destruct (P (or_introl E)) as [Hs Hg]. clear P.
  unfold ev_of in Hs, Hg. rewrite E in Hs, Hg. cbn [Z.eqb Pos.eqb] in Hs, Hg.
  destruct (push_shape _ _ _ _ Hs) as [Ht [Hu Hl]]. splits; auto. rewrite Hl. f_equal.
  (* the entry reports success exactly when the model's list accepts the block *)
  open_tag H E. ifg. intros _. unfold push_back in Heqb.
  destruct (sx_Z (sx_nth e 1) =? 0)%Z eqn:R; [|destruct (closedForWriting _); reflexivity].
  apply Z.eqb_eq in R. rewrite R in Heqb. destruct (closedForWriting _); [discriminate|reflexivity].
Qed.

Lemma tag2_facts x e x' gx gx' : tag e = 2%Z -> post cfg bs e x gx x' gx' ->
  g_acks (gs_g gx') = g_acks (gs_g gx) /\ tr (x_sys x') = S (tr (x_sys x)) /\
  s_uploads (x_sys x') = s_uploads (x_sys x) /\
  exists b0, locs (s_pbl (x_sys x)) = b0 :: locs (s_pbl (x_sys x')).
Proof.
  intros E [_ [_ [_ [_ [_ [_ [_ [_ P]]]]]]]]. destruct (P (or_intror (or_introl E))) as [Hs Hg]. clear P.
  unfold ev_of in Hs, Hg. rewrite E in Hs, Hg. cbn [Z.eqb Pos.eqb] in Hs, Hg.
  split; [rewrite Hg; apply gstep_acks_same; intros k b sd Hc; discriminate|]. exact (pop_shape _ _ _ Hs).
Qed.

Lemma tag3_facts x e x' gx gx' : tag e = 3%Z -> post cfg bs e x gx x' gx' ->
  gx' = gx /\ s_pbl (x_sys x') = s_pbl (x_sys x) /\
  exists tok, s_uploads (x_sys x') = s_uploads (x_sys x) ++ [Some (tok, sx_Z (sx_nth e 2))] /\
              forall abs, tok = PutAt abs -> abs = tr (x_sys x) + sx_nat (sx_nth e 1).
Proof.
  intros E [_ [_ [_ [_ [_ [_ [_ [_ P]]]]]]]]. destruct (P (or_intror (or_intror (or_introl E)))) as [Hs Hg]. clear P.
  unfold ev_of in Hs, Hg. rewrite E in Hs, Hg. cbn [Z.eqb Pos.eqb] in Hs, Hg.
  split; [exact Hg|]. exact (putstart_shape _ _ _ _ _ Hs).
Qed.

Lemma index_to_ref_mk_ack g p abs e r sd : index_to_ref (abs - totalReleased p) p = Ok (r, sd) ->
  exists a, mk_ack g p abs e = Some a /\ a_abs a = abs /\ a_ref a = r /\ a_seed a = sd.
Proof.
  unfold mk_ack. intros H. rewrite H. unfold index_to_ref in H.
  destruct (length (epochSeeds p)) as [|n]; [discriminate|].
  destruct (nth_error (epochLast p) n) as [la|]; [|discriminate].
  destruct (nth_error (epochSeeds p) n) as [sd'|]; [|discriminate].
  eexists. split; [reflexivity|]. cbn. auto.
Qed.

Lemma tag4_facts x e x' gx gx' : tag e = 4%Z -> replay_entry cfg bs x e = Some x' -> post cfg bs e x gx x' gx' ->
  tr (x_sys x') = tr (x_sys x) /\ locs (s_pbl (x_sys x')) = locs (s_pbl (x_sys x)) /\
  s_uploads (x_sys x') = clear_nth (s_uploads (x_sys x)) (sx_nat (sx_nth e 1)) /\
  (forall a, In a (g_acks (gs_g gx)) -> In a (g_acks (gs_g gx'))) /\
  ((sx_Z (sx_nth e 2) =? 0)%Z = true ->
     exists abs size a, nth_error (s_uploads (x_sys x)) (sx_nat (sx_nth e 1)) = Some (Some (PutAt abs, size)) /\
       tr (x_sys x) <= abs /\ In a (g_acks (gs_g gx')) /\ a_abs a = abs /\
       a_ref a = (sx_N (sx_nth e 4), sx_N (sx_nth e 5)) /\ a_seed a = sx_N (sx_nth e 6)).
Proof.
  intros E H [_ [_ [_ [_ [_ [_ [_ [_ P]]]]]]]].
  destruct (P (or_intror (or_intror (or_intror E)))) as [Hs Hg]. clear P.
  unfold ev_of in Hs, Hg. rewrite E in Hs, Hg. cbn [Z.eqb Pos.eqb] in Hs, Hg.
  destruct (finalize_shape _ _ _ _ _ _ Hs) as [Ft [Fl Fu]]. split; [exact Ft|]. split; [exact Fl|]. split; [exact Fu|].
  split.
  { assert (Hgrow : exists pre, g_acks (gs_g gx') = pre ++ g_acks (gs_g gx)) by (rewrite Hg; apply gstep_acks_grow).
    destruct Hgrow as [pre Hpre]. intros a Ha. rewrite Hpre. apply in_or_app. right. exact Ha. }
  open_tag H E.
  destruct (nth_error (s_uploads (x_sys x)) (sx_nat (sx_nth e 1))) as [[[tok size]|]|] eqn:En; try discriminate.
  destruct (put_finalize _ _ _ _ _) as [[p' fr]|] eqn:Ef; [|discriminate].
  match goal with |- (if ?c then _ else _) = _ -> _ => destruct c eqn:Er; [|discriminate] end.
  match goal with |- (if ?c then _ else _) = _ -> _ => destruct c eqn:Eok; [|discriminate] end.
  intros _.
  intros R. apply Z.eqb_eq in R. rewrite R in *. cbn [Z.eqb] in *.
  apply Z.eqb_eq in Er. destruct fr as [off| | |]; cbn in Er; try discriminate.
  destruct tok as [|abs]; [discriminate|].
  destruct (put_finalize_ok_shape _ _ _ _ _ _ _ Ef) as [abs' [Htok [_ [_ [Hge _]]]]]. inversion Htok; subst abs'.
  destruct (index_to_ref (abs - totalReleased p') p') as [[[ep bfl] sd]|] eqn:Ei; [|discriminate].
  apply andb_prop in Eok. destruct Eok as [Eok E3]. apply andb_prop in Eok. destruct Eok as [E1 E2].
  apply N.eqb_eq in E1, E2, E3. subst ep bfl sd.
  destruct (index_to_ref_mk_ack (gs_g gx) p' abs (off + size)%Z _ _ Ei) as [a [Hmk [Ha1 [Ha2 Ha3]]]].
  exists abs, size, a. split; [reflexivity|]. split; [exact Hge|].
  split; [|auto]. rewrite Hg. cbn [gstep]. rewrite En, Ef, Hmk. cbn. left. reflexivity.
Qed.

End Facts.

Lemma Lk_nofin m l s gx : Lk m l s gx -> Lk m (mkL (l_puts l) (l_slot l) None (l_cr l)) s gx.
Proof. intros [A B C D E F G0]. constructor; cbn [l_puts l_slot l_fin l_cr]; auto. intros kk ref H. discriminate. Qed.

Lemma is_upres_tag m e : is_upres m e = true -> tag e = 30%Z.
Proof. unfold is_upres. intros H. apply andb_prop in H. destruct H as [H _]. apply andb_prop in H. destruct H as [H _]. apply Z.eqb_eq. exact H. Qed.

Lemma entry_Lk cfgsx objs ops cfg bs m l x e x' gx gx' :
  replay_entry cfg bs x e = Some x' -> gpath cfg (allowed e) (x_sys x) gx (x_sys x') gx' ->
  post cfg bs e x gx x' gx' -> l_check cfgsx m l e = true -> Lk m l (x_sys x) gx ->
  Lk (mon_entry cfgsx objs ops m e) (l_step cfgsx m l e) (x_sys x') gx'.
Proof.
  intros R Hp Hpost Hck HL.
  destruct (mon_entry_store_fields cfgsx objs ops m e) as [ML [_ [MU MC]]].
  unfold l_check in Hck. apply andb_prop in Hck. destruct Hck as [N0 Hck].
  apply Bool.negb_true_iff in N0.
  (* every entry but 1..4 is a path of thread steps, clock ticks and cancellations *)
  assert (Hquiet : ~ is14 e -> Lk m l (x_sys x') gx').
  { intros N14.
    assert (Hq : gpath cfg (fun _ ev => quiet ev /\ notfin ev) (x_sys x) gx (x_sys x') gx').
    { eapply gpath_weaken; [|exact Hp]. intros s0 ev [_ [_ [H|H]]]; [destruct (N14 H)|].
      split; [exact H|apply quiet_notfin; exact H]. }
    destruct (gpath_quiet_frame _ _ _ _ _ Hq) as [Ht [Hl [Hu Ha]]].
    apply (Lk_frame m l (x_sys x) gx (x_sys x') gx' Ht Hl Hu); [|exact HL]. intros a Hin. rewrite Ha. exact Hin. }
  unfold l_step. destruct (is_upres m e) eqn:Hup.
  { (* the result of an upload op *)
    pose proof (is_upres_tag _ _ Hup) as E. rewrite E in ML, MU, MC, Hck |- *. cbn [Z.eqb Pos.eqb] in ML, MU, MC, Hck |- *.
    assert (HL' : Lk m l (x_sys x') gx') by (apply Hquiet; unfold is14; rewrite E; intuition discriminate).
    eapply Lk_upres; eauto.
    unfold makes_copy in *. rewrite Hup in *. cbn [andb] in *.
    destruct ((res_code e =? 0)%Z && negb (m_final m))%bool; [|exact MC].
    destruct (assoc_nat (op_slot m) (m_upl m)) as [[k [loc|]]|] eqn:Ea; try exact MC.
    split; [exact MC|]. split; [reflexivity|].
    destruct (l_fin l) as [[kk ref]|]; [|discriminate].
    destruct (assoc_nat (op_slot m) (l_slot l)) as [kk'|]; [|discriminate].
    apply Nat.eqb_eq in Hck. subst kk'. eauto. }
  destruct (Z.eq_dec (tag e) 1) as [E|N1].
  { (* PushBack *)
    destruct (tag1_facts cfg bs x e x' gx gx' E R Hpost) as [-> [Ht [Hu Hl]]].
    rewrite E in ML, MU, MC |- *. cbn [Z.eqb Pos.eqb] in ML, MU, MC |- *.
    apply (Lk_ext m _ l (x_sys x) gx (x_sys x') gx _ Ht Hl); rewrite ?Hu; auto.
    rewrite ML. destruct (sx_Z (sx_nth e 1) =? 0)%Z; [reflexivity|rewrite app_nil_r; reflexivity]. }
  destruct (Z.eq_dec (tag e) 2) as [E|N2].
  { (* PopFront *)
    destruct (tag2_facts cfg bs x e x' gx gx' E Hpost) as [Ha [Ht [Hu [b0 Hl]]]].
    rewrite E in ML, MU, MC, Hck |- *. cbn [Z.eqb Pos.eqb] in ML, MU, MC, Hck |- *.
    assert (Hlive : m_live m = fst b0 :: map fst (locs (s_pbl (x_sys x')))).
    { rewrite (lk_live _ _ _ _ _ HL), Hl. reflexivity. }
    rewrite Hlive in Hck, MC |- *. rewrite <- Hlive in Hck, MC |- *. rewrite Hck in MC |- *.
    assert (HL' : Lk m l (x_sys x) gx').
    { apply (Lk_frame m l (x_sys x) gx); auto. intros a Hin. rewrite Ha. exact Hin. }
    eapply (Lk_pop cfgsx); eauto. }
  destruct (Z.eq_dec (tag e) 3) as [E|N3].
  { (* BlockList.Put *)
    destruct (tag3_facts cfg bs x e x' gx gx' E Hpost) as [-> [Hpb [tok [Hu Htok]]]].
    rewrite E in ML, MU, MC |- *. cbn [Z.eqb Pos.eqb] in ML, MU, MC |- *.
    eapply Lk_put; eauto.
    destruct (tag (m_op m) =? 1)%Z; [right; eexists _, _; split; [exact MU|reflexivity]|left; auto]. }
  destruct (Z.eq_dec (tag e) 4) as [E|N4].
  { (* finalizer *)
    destruct (tag4_facts cfg bs x e x' gx gx' E R Hpost) as [Ht [Hl [Hu [Ha Hok]]]].
    rewrite E in ML, MU, MC |- *. cbn [Z.eqb Pos.eqb] in ML, MU, MC |- *.
    eapply Lk_fin; eauto.
    destruct (sx_Z (sx_nth e 2) =? 0)%Z eqn:R0; [|left; reflexivity]. right.
    destruct (Hok eq_refl) as [abs [size [a [H1 [H2 [H3 [H4 [H5 H6]]]]]]]].
    exists (sx_N (sx_nth e 4), sx_N (sx_nth e 5), sx_N (sx_nth e 6)), abs, size, a. cbn [fst snd]. splits; auto. }
  (* the remaining entries leave the monitor's record of the list, the Puts and the copies alone *)
  assert (HL' : Lk m l (x_sys x') gx') by (apply Hquiet; unfold is14; tauto).
  rewrite N0, (neqb _ _ N1), (neqb _ _ N2) in ML. rewrite (neqb _ _ N3) in MU. rewrite (neqb _ _ N2) in MC.
  rewrite (neqb _ _ N2), (neqb _ _ N3), (neqb _ _ N4).
  pose proof (Lk_mon_same m _ l _ _ ML MU MC HL') as HL''.
  destruct (tag e =? 19)%Z; [apply Lk_nofin; exact HL''|exact HL''].
Qed.

Fixpoint l_all (cfgsx objs : sx) (ops : list sx) (m : mst) (l : lst) (es : list sx) : bool :=
  match es with
  | [] => true
  | e :: r => l_check cfgsx m l e && l_all cfgsx objs ops (mon_entry cfgsx objs ops m e) (l_step cfgsx m l e) r
  end.

Fixpoint l_fold (cfgsx objs : sx) (ops : list sx) (m : mst) (l : lst) (es : list sx) : lst :=
  match es with
  | [] => l
  | e :: r => l_fold cfgsx objs ops (mon_entry cfgsx objs ops m e) (l_step cfgsx m l e) r
  end.

Lemma entries_all o cfg bs cfgsx objs ops st0 : forall es n m l x x1 gx,
  G o (x_sys x) gx -> J m (x_sys x) gx -> K st0 x gx -> Bw (x_sys x) gx -> Lk m l (x_sys x) gx ->
  replay_entries cfg bs n x es = (x1, []) -> l_all cfgsx objs ops m l es = true ->
  exists gx1, gpath cfg (fun _ _ => True) (x_sys x) gx (x_sys x1) gx1 /\ G o (x_sys x1) gx1 /\
    J (fold_left (mon_entry cfgsx objs ops) es m) (x_sys x1) gx1 /\ K st0 x1 gx1 /\ Bw (x_sys x1) gx1 /\
    Lk (fold_left (mon_entry cfgsx objs ops) es m) (l_fold cfgsx objs ops m l es) (x_sys x1) gx1.
Proof.
  induction es as [|e es IH]; intros n m l x x1 gx Hg Hj Hk Hb HL H C; cbn in H, C.
  - injection H as <-. exists gx. cbn. split; [constructor|auto].
  - destruct (replay_entry cfg bs x e) as [x'|] eqn:R; [|discriminate].
    apply andb_prop in C. destruct C as [C1 C2].
    destruct (entry_inv o cfg bs cfgsx objs ops m x e x' gx Hg Hj R) as [gx' [Hp [Hg' [Hj' Hpost]]]].
    pose proof (entry_K cfg bs st0 e x gx x' gx' Hk Hp Hpost) as Hk'.
    pose proof (Bw_gpath _ _ _ _ _ _ Hp Hb) as Hb'.
    pose proof (entry_Lk cfgsx objs ops cfg bs m l x e x' gx gx' R Hp Hpost C1 HL) as HL'.
    destruct (IH _ _ _ _ _ _ Hg' Hj' Hk' Hb' HL' H C2) as [gx1 [Hp1 Rest]].
    exists gx1. cbn [fold_left l_fold]. split; [|exact Rest].
    eapply gpath_trans; [|exact Hp1]. eapply gpath_weaken; [|exact Hp]. auto.
Qed.

Definition l0 (crs : list (copy * rref)) : lst := mkL [] [] None crs.

Lemma restore_locs alloc init : forall n bl sd ls, restore_blocks alloc init n = (bl, sd, ls) ->
  map b_loc bl = map bs_loc (firstn (length bl) init).
Proof.
  induction init as [|b rest IH]; intros n bl sd ls H; cbn in H.
  - inversion H. reflexivity.
  - destruct (alloc _ _); [|inversion H; reflexivity].
    destruct (restore_blocks alloc rest (S n)) as [[bl' sd'] ls'] eqn:E. injection H as <-. cbn.
    rewrite (IH _ _ _ _ E). reflexivity.
Qed.

Lemma restore_live c cfg bs st0 now e0 x0 : replay_restore c cfg bs st0 now e0 = Some x0 ->
  firstn (sx_nat (sx_nth e0 1)) (state_locs (sx_nth e0 2)) = map fst (locs (s_pbl (x_sys x0))) /\
  s_uploads (x_sys x0) = [].
Proof.
  intros H. destruct (replay_restore_inv _ _ _ _ _ _ _ H) as [_ [_ [al [-> Hn]]]]. cbv zeta in Hn |- *.
  cbn [x_sys s_pbl init_sys s_uploads]. split; [|reflexivity]. rewrite <- Hn. unfold pbl_new.
  destruct (restore_blocks al _ 0) as [[bl sd] ls] eqn:E. cbn [new_nc fst snd]. unfold locs. cbn [blocks].
  rewrite (restore_locs _ _ _ _ _ _ E). unfold dec_state, state_locs. cbn [snd].
  rewrite <- !firstn_map, !map_map. reflexivity.
Qed.

Lemma Lk_start cfgsx objs ops c cfg bs st0 now e0 x0 m0 gx crs : replay_restore c cfg bs st0 now e0 = Some x0 ->
  tag e0 = 0%Z -> m_upl m0 = [] -> map fst crs = m_copies m0 ->
  (forall cp ref, In (cp, ref) crs -> scope cp -> ack_for (x_sys x0) gx ref (Some (c_loc cp))) ->
  Lk (mon_entry cfgsx objs ops m0 e0) (l0 crs) (x_sys x0) gx.
Proof.
  intros Hr T0 Hu Hcr Hack. destruct (restore_live _ _ _ _ _ _ _ Hr) as [Hlive Hup].
  destruct (mon_entry_store_fields cfgsx objs ops m0 e0) as [ML [_ [MU MC]]].
  assert (Hres : is_upres m0 e0 = false) by (unfold is_upres; rewrite T0; reflexivity).
  rewrite T0 in ML, MU, MC. cbn [Z.eqb] in ML, MU, MC. rewrite Hres in MU, MC.
  constructor; unfold l0; cbn [l_puts l_slot l_fin l_cr].
  - rewrite ML. exact Hlive.
  - rewrite Hup. reflexivity.
  - intros kk lo abs size H. destruct kk; discriminate.
  - intros kk ref H. discriminate.
  - rewrite MC. exact Hcr.
  - exact Hack.
  - intros slot k lo H. rewrite MU, Hu in H. discriminate.
Qed.

End Scope.

Notation Lk := (Lkg (fun c => c_old c = false)).

(** the start of an incarnation as the monitor leaves it: no upload in flight, every copy inherited *)
Definition m_start (m : mst) : Prop := m_upl m = [] /\ Forall (fun c => c_old c = true) (m_copies m).
Definition old_crs (m : mst) : list (copy * rref) := map (fun c => (c, (0, 0, 0)%N)) (m_copies m).

Lemma m_init_start : m_start m_init.
Proof. split; [reflexivity|constructor]. Qed.
Lemma mon_exit_start m : m_start (mon_exit m).
Proof.
  split; [reflexivity|]. unfold mon_exit. cbn [m_copies]. destruct (Z.eqb _ 0); [constructor|].
  rewrite Forall_forall. intros c Hin. apply in_map_iff in Hin. destruct Hin as [c0 [<- _]]. reflexivity.
Qed.

Theorem mon03_owed_copies_resolve c cfg bs st0 now e0 es x0 x1 cfgsx objs ops m0 :
  replay_restore c cfg bs st0 now e0 = Some x0 ->
  replay_entries cfg bs 1 x0 es = (x1, []) ->
  m_fresh m0 -> m_start m0 ->
  l_all cfgsx objs ops (mon_entry cfgsx objs ops m0 e0) (l0 (old_crs m0)) es = true ->
  let m1 := fold_left (mon_entry cfgsx objs ops) (e0 :: es) m0 in
  let l1 := l_fold cfgsx objs ops (mon_entry cfgsx objs ops m0 e0) (l0 (old_crs m0)) es in
  map fst (l_cr l1) = m_copies m1 /\
  m_live m1 = map fst (locs (s_pbl (x_sys x1))) /\
  exists alloc oldest init gx, greachable cfg alloc oldest init now (x_sys x1) gx /\
  forall cp ref, In (cp, ref) (l_cr l1) -> c_old cp = false ->
    exists a, In a (g_acks (gs_g gx)) /\ a_ref a = (fst (fst ref), snd (fst ref)) /\ a_seed a = snd ref /\
      totalReleased (s_pbl (x_sys x1)) <= a_abs a /\
      loc_at (x_sys x1) (a_abs a) = Some (c_loc cp) /\
      (m_prev (mon_exit m1) <> 0%Z ->
         exists w rest, gs_writes gx = w :: rest /\ x_state x1 = gw_state w /\ covers w a /\
           gw_base_abs w <= a_abs a /\
           ((N.of_nat (a_ep a - gw_base_ep w) < 2 ^ 32)%N -> (Z.of_nat (a_last a - a_abs a) < 2 ^ 16)%Z ->
            ref_to_index (fst (fst ref)) (snd (fst ref)) (restart_of (x_state x1))
              = Ok (Some (a_abs a - gw_base_abs w, snd ref)) /\
            exists b, nth_error (blocks (restart_of (x_state x1))) (a_abs a - gw_base_abs w) = Some b /\
                      (a_end a <= b_written b)%Z)).
Proof.
  intros Hr He Hf Hs Hall m1 l1. subst m1 l1. cbn [fold_left].
  destruct (replay_restore_init _ _ _ _ _ _ _ Hr) as [T0 [Hst [alloc [oldest [init Hx0]]]]].
  pose proof (G_init alloc oldest init now) as Hg0. rewrite <- Hx0 in Hg0.
  pose proof (J_restore_entry cfgsx objs ops m0 e0 (x_sys x0) g0 T0 Hf) as Hj0.
  assert (Hk0 : K st0 x0 g0) by (unfold K; cbn; exact Hst).
  assert (Hb0 : Bw (x_sys x0) g0) by (apply Bw_nowrites; reflexivity).
  assert (HL0 : Lk (mon_entry cfgsx objs ops m0 e0) (l0 (old_crs m0)) (x_sys x0) g0).
  { destruct Hs as [Hu Hold]. apply (Lk_start _ cfgsx objs ops c cfg bs st0 now e0 x0 m0 g0 _ Hr T0 Hu).
    - unfold old_crs. rewrite map_map. cbn [fst]. apply map_id.
    - intros cp ref Hin Ho. unfold old_crs in Hin. apply in_map_iff in Hin. destruct Hin as [c0 [Heq Hin]].
      injection Heq as <-. rewrite Forall_forall in Hold. rewrite (Hold _ Hin) in Ho. discriminate. }
  destruct (entries_all _ oldest cfg bs cfgsx objs ops st0 es 1 _ _ x0 x1 g0 Hg0 Hj0 Hk0 Hb0 HL0 He Hall)
    as [gx [Hp [Hg [Hj [Hk [Hb HL]]]]]].
  set (m1 := fold_left _ es _) in *. set (l1 := l_fold _ _ _ _ _ es) in *.
  split; [exact (lk_cr _ _ _ _ _ HL)|]. split; [exact (lk_live _ _ _ _ _ HL)|].
  assert (R : greachable cfg alloc oldest init now (x_sys x1) gx).
  { eapply greachable_gpath; [|exact Hp]. exists []. cbn. rewrite Hx0. reflexivity. }
  exists alloc, oldest, init, gx. split; [exact R|].
  intros cp ref Hin Hold. destruct (lk_ack _ _ _ _ _ HL cp ref Hin Hold) as [a [Ha [Hr1 [Hr2 [Hge Hloc]]]]].
  exists a. split; [exact Ha|]. split; [exact Hr1|]. split; [exact Hr2|]. split; [exact Hge|].
  split; [apply Hloc; reflexivity|].
  intros Hprev.
  destruct (exit_covers oldest st0 m1 x1 gx Hg Hj Hk Hprev) as [w [rest [Hw [Hxs [Hc Hcv]]]]]. exists w, rest.
  assert (Hbase : gw_base_abs w <= a_abs a).
  { destruct Hb as [B1 _]. specialize (B1 w). rewrite Hw in B1. specialize (B1 (or_introl eq_refl)).
    unfold tr in B1, Hge. lia. }
  split; [exact Hw|]. split; [exact Hxs|]. split; [apply Hcv; exact Ha|]. split; [exact Hbase|].
  intros H32 H16. rewrite Hxs.
  destruct Hg as [[[[_ [Gi [Wk _]]] _] _] _].
  pose proof (gi_static _ _ _ Gi) as St. rewrite Forall_forall in St.
  rewrite Hw in Wk. apply Forall_inv in Wk. destruct Wk as [_ [_ Wk]].
  destruct (covered_record_resolves oldest w a Hbase (Hcv a Ha) (St a Ha) Wk H32 H16) as [Q1 Q2].
  rewrite Hr1 in Q1. cbn [fst snd] in Q1. rewrite Hr2 in Q1. split; [exact Q1|exact Q2].
Qed.

Fixpoint l_incs (cfgsx objs : sx) (incs hists : list sx) (m : mst) : bool :=
  match incs, hists with
  | inc :: incs', h :: hists' =>
      match sx_list h with
      | e0 :: es =>
          let ops := sx_list (sx_nth inc 1) in
          l_all cfgsx objs ops (mon_entry cfgsx objs ops m e0) (l0 (old_crs m)) es &&
          l_incs cfgsx objs incs' hists' (mon_exit (fold_left (mon_entry cfgsx objs ops) (e0 :: es) m))
      | [] => true
      end
  | _, _ => true
  end.

Definition l_obs (inp obs : sx) : bool :=
  l_incs (sx_nth inp 0) (sx_nth inp 1) (sx_list (sx_nth inp 2)) (sx_list obs) m_init.
