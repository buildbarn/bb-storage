(** C03, monitor versus model — part 2 (monitor side): what one history entry does to the
    bookkeeping fields of the monitor state of Run/R03.v, as equations by entry tag. *)
From BBS Require Import Common.Sx Run.R03.
Open Scope Z_scope.

(** case analysis of a Z down to the literals 0..63 (deeper positives stay symbolic) *)
Ltac dpos p n :=
  match n with
  | O => idtac
  | S ?n' => let q := fresh "q" in destruct p as [q|q|]; [dpos q n'|dpos q n'|idtac]
  end.
Ltac ztag z := let p := fresh "p" in destruct z as [|p|p]; [|dpos p 6%nat|].

Lemma res_cases {A} (P : Z -> A -> Prop) (a0 a2 d : A) :
  P 0 a0 -> P 2 a2 -> (forall z, z =? 0 = false -> z =? 2 = false -> P z d) ->
  forall z, P z match z with 0 => a0 | 2 => a2 | _ => d end.
Proof. intros H0 H2 Hd z. destruct z as [|[q|[q|q|]|]|]; try assumption; apply Hd; reflexivity. Qed.

Ltac prj :=
  cbn [m_live m_upl m_op m_copies m_final m_exited m_pos m_lastput m_sync_start m_sync_ok m_sync_done
       m_wcover m_commit m_prev m_viol Z.eqb Pos.eqb orb andb].

Ltac brk :=
  repeat (prj; match goal with
               | |- context [match m_live ?m with _ => _ end] => destruct (m_live m)
               | |- context [if ?c then _ else _] => destruct c
               end).

(** [mon_entry] is a [match] on literal tags, which Coq compiles into a tree of tests on binary
    digits: only here is that tree taken apart, on a goal that holds nothing else. *)
Lemma tag_cases {A} (P : Z -> A -> Prop) (a0 a1 a2 a3 a4 a6 a8 a9 a11 a13 a18 a19 a30 a32 d : A) :
  P 0 a0 -> P 1 a1 -> P 2 a2 -> P 3 a3 -> P 4 a4 -> P 6 a6 -> P 8 a8 -> P 9 a9 -> P 11 a11 -> P 13 a13 ->
  P 18 a18 -> P 19 a19 -> P 30 a30 -> P 32 a32 ->
  (forall z, z =? 0 = false -> z =? 1 = false -> z =? 2 = false -> z =? 3 = false -> z =? 4 = false ->
     z =? 6 = false -> z =? 8 = false -> z =? 9 = false -> z =? 11 = false -> z =? 13 = false ->
     z =? 18 = false -> z =? 19 = false -> z =? 30 = false -> z =? 32 = false -> P z d) ->
  forall z, P z match z with
                | 0 => a0 | 1 => a1 | 2 => a2 | 3 => a3 | 4 => a4 | 6 => a6 | 8 => a8 | 9 => a9 | 11 => a11
                | 13 => a13 | 18 => a18 | 19 => a19 | 30 => a30 | 32 => a32 | _ => d
                end.
Proof. intros H0 H1 H2 H3 H4 H6 H8 H9 H11 H13 H18 H19 H30 H32 Hd z. ztag z; try assumption; apply Hd; reflexivity. Qed.

Lemma mon_entry_fields cfg objs ops m x :
  m_pos (mon_entry cfg objs ops m x) = S (m_pos m) /\
  m_lastput (mon_entry cfg objs ops m x) = (if (tag x =? 3) || (tag x =? 4) then S (m_pos m) else m_lastput m) /\
  m_sync_start (mon_entry cfg objs ops m x) = (if tag x =? 8 then S (m_pos m) else m_sync_start m) /\
  m_sync_done (mon_entry cfg objs ops m x) =
    (if (tag x =? 9) && m_sync_ok m then m_sync_start m else m_sync_done m) /\
  m_wcover (mon_entry cfg objs ops m x) =
    (if tag x =? 6 then (sx_Z (sx_nth x 1), m_sync_done m) :: m_wcover m else m_wcover m) /\
  m_commit (mon_entry cfg objs ops m x) =
    (if (tag x =? 13) && sx_bool (sx_nth x 2)
     then Nat.max (m_commit m) (assoc_Z (sx_Z (sx_nth x 1)) (m_wcover m)) else m_commit m) /\
  m_final (mon_entry cfg objs ops m x) = (m_final m || ((tag x =? 8) && sx_bool (sx_nth x 1)) || (tag x =? 18)) /\
  m_exited (mon_entry cfg objs ops m x) = (m_exited m || (tag x =? 18)) /\
  m_prev (mon_entry cfg objs ops m x) = m_prev m.
Proof.
  (* the new state gets a name, so that the goal holds the dispatch once and not once per field *)
  remember (mon_entry cfg objs ops m x) as m' eqn:E. revert m' E.
  unfold mon_entry. prj. generalize (tag x) as z. intro z. apply tag_cases.
  15: { intros z' _ _ _ H3 H4 H6 H8 H9 _ H13 H18 _ _ _ m' ->. rewrite H3, H4, H6, H8, H9, H13, H18. prj.
        rewrite !Bool.orb_false_r. repeat split; reflexivity. }
  (* tag 30: the result of an op *)
  13: apply res_cases; [destruct (is_upload_op (m_op m))|..|intros z2 _ _].
  all: intros m' ->; brk; prj; rewrite ?Bool.orb_false_r, ?Bool.orb_true_r; repeat split; reflexivity.
Qed.
