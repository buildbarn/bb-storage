(** C04 monitor: buffers released exactly once, no reader or block space
    stays pinned after the operations that used it returned. *)
From BBS Require Import Common.Sx Store.Model Run.RStore Run.R01.
Open Scope Z_scope.

(** [opened] = operations currently parked, judged from the observations *)
Definition m04_step (acc : list nat * list Z) (x : op * (state * state * out) * sx) : list nat * list Z :=
  let '(e, (s0, s1, mo), o) := x in
  let '(opened, viol) := acc in
  let parks tid := if Z.eqb (ob_kind o) 1 then tid :: opened else opened in
  let finishes tid := if Z.eqb (ob_kind o) 0 then filter (fun t => negb (Nat.eqb t tid)) opened else opened in
  let opened' :=
    match e with
    | OPutStart tid _ _ | OGetOpen tid _ _ | OGfcStart tid _ _ _ => parks tid
    | OPutChunk tid _ | OPutEnd tid _ | OGetConsume tid | OGfcSlice tid _ => finishes tid
    | _ => opened
    end in
  let put_done := match e with
                  | OPutStart _ _ _ | OPutChunk _ _ | OPutEnd _ _ => Z.eqb (ob_kind o) 0
                  | _ => false
                  end in
  (* 1: an upload's buffer must be released exactly once when Put returns *)
  let v1 := if put_done && negb (Z.eqb (ob_srcclosed o) 1) then [1] else [] in
  let quiescent := match opened' with [] => negb (Z.eqb (ob_kind o) 3) | _ => false end in
  (* 2: no reader stays open once every operation has returned *)
  let v2 := if quiescent && (0 <? ob_open o) then [2] else [] in
  (* 3: once every operation has returned, no block beyond those listed stays allocated *)
  let v3 := if quiescent && (0 <=? ob_live o) && (Z.of_nat (length (s_blocks s1)) <? ob_live o) then [3] else [] in
  (opened', viol ++ v1 ++ v2 ++ v3).

Definition mon04 (inp obs : sx) : list Z :=
  let w := dec_world inp in
  let es := dec_ops inp in
  let sts := run_states w (init_state (w_cfg w)) es in
  dedupZ (snd (fold_left m04_step (combine (combine es sts) (sx_list obs)) ([], []))).

Definition judge04 (inp obs : sx) : sx := judge_store mon04 inp obs.
