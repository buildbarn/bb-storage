(** C03, monitor versus model — part 5: clauses 2 and 3 (an upload acknowledged / failed with
    something other than UNAVAILABLE after the final synchronisation began) never fire on a history
    that the model accepts, PROVIDED the results of the upload ops are consistent with the
    finalizer entries of the same op.

    The model of C03 (Persist/PBL.v + Syncer.v) stops at the BlockList interface: it says what
    every finalizer returns, not what the store's Put returns to its caller.  That link is made
    explicit as the decidable check [u_all] on the history:
      (u1) inside the segment of an upload op (from its entry 19 to its result, entry 30) there is
           no NotifySyncStarting(true) and no return of ProcessBlockPut (the harness drives the
           syncer's I/O completions by ops of their own);
      (u2) an upload that wrote into the block list and is acknowledged (code 0) had a finalizer
           that returned class 0 (OK) in its segment;
      (u3) a well-formed upload that wrote into the block list had a finalizer of class 0 / 1 / 2 in
           its segment and its code is the one the store derives from it (OK / UNAVAILABLE /
           INTERNAL).
    Theorem [mon03_clauses23_silent]: on every accepted incarnation history satisfying [u_all],
    clauses 2 and 3 are not added.  The model-side content is [refused_not_lost] of Props/C03.v (through
    [mon03_no_ack_after_final]): once the monitor has seen the final synchronisation begin the
    model's list is closed, so every accepted finalizer entry has class 1 or 3. *)
From Coq Require Import List NArith ZArith Bool Arith Lia.
From BBS Require Import Common.Sx Persist.PBL Persist.PBLProofs Persist.Syncer Persist.SyncerProofs
  Persist.Shutdown Persist.ShutdownProofs Persist.ShutdownOrder Run.R03 Run.R03MonGhost Run.R03MonFields
  Run.R03MonReplay Run.R03Mon.
Import ListNotations.
Local Open Scope nat_scope.

Lemma mon_entry_viol_other cfg objs ops m x : tag x <> 30%Z -> tag x <> 32%Z ->
  m_viol (mon_entry cfg objs ops m x) = m_viol m.
Proof.
  unfold mon_entry. prj. generalize (tag x) as z. intro z. apply tag_cases.
  13, 14: congruence.
  all: intros; brk; prj; reflexivity.
Qed.

Definition up_wrote (m : mst) : bool :=
  match assoc_nat (sx_nat (sx_nth (m_op m) 1)) (m_upl m) with Some (_, Some _) => true | _ => false end.

Lemma mon_entry_viol cfg objs ops m x z : In z (m_viol (mon_entry cfg objs ops m x)) ->
  In z (m_viol m) \/ z = 5%Z \/
  (tag x = 30%Z /\ tag (sx_nth x 2) = 0%Z /\ is_upload_op (m_op m) = true /\
   ((z = 2%Z /\ (Z.eqb (sx_Z (sx_nth (sx_nth x 2) 1)) 0 && m_final m && up_wrote m)%bool = true) \/
    (z = 3%Z /\ (m_final m && sx_bool (sx_nth (sx_nth x 2) 2) && up_wrote m
                 && negb (Z.eqb (sx_Z (sx_nth (sx_nth x 2) 1)) 0)
                 && negb (Z.eqb (sx_Z (sx_nth (sx_nth x 2) 1)) 14))%bool = true))) \/
  (tag x = 32%Z /\ (z = 1%Z \/ z = 4%Z) /\
   existsb (fun c => Nat.eqb (c_key c) (sx_nat (sx_nth x 1)) && c_old c) (m_copies m) = true /\
   (Z.eqb (sx_Z (sx_nth x 4)) 0 && sx_eqb (sx_nth x 5) (sx_nth objs (sx_nat (sx_nth x 1)))
    && Z.eqb (sx_Z (sx_nth x 2)) 0 && Z.eqb (sx_Z (sx_nth x 3)) 0)%bool = false).
Proof.
  destruct (Z.eq_dec (tag x) 30) as [E|N30]; [|destruct (Z.eq_dec (tag x) 32) as [E|N32]].
  3: { rewrite (mon_entry_viol_other _ _ _ _ _ N30 N32). auto. }
  all: unfold mon_entry, up_wrote; rewrite E; cbv beta iota zeta.
  - generalize (tag (sx_nth x 2)) as r. intro r. apply res_cases; [| |intros r' _ _ H; left; exact H]; prj.
    + (* an upload result *)
      destruct (is_upload_op (m_op m)); prj; [|intros H; left; exact H].
      rewrite !in_app_iff. intros [H|[H|H]]; [left; exact H| |].
      * destruct (_ && _ && _)%bool eqn:C; [|destruct H]. destruct H as [<-|[]]. right. right. left. auto 6.
      * match type of H with In _ (if ?c then _ else _) => destruct c eqn:C; [|destruct H] end.
        destruct H as [<-|[]]. right. right. left. auto 6.
    + (* a Get result *)
      rewrite in_app_iff. intros [H|H]; [left; exact H|].
      match type of H with In _ (if ?c then _ else _) => destruct c; [|destruct H] end.
      destruct H as [<-|[]]. auto.
  - (* a read-back *)
    prj. rewrite !in_app_iff. intros [H|[H|H]]; [left; exact H| |].
    + match type of H with In _ (if ?c then _ else _) => destruct c; [|destruct H] end.
      destruct H as [<-|[]]. auto.
    + match type of H with In _ (if ?c then _ else _) => destruct c eqn:C; [|destruct H] end.
      apply andb_prop in C. destruct C as [C1 C2]. apply Bool.negb_true_iff in C2.
      destruct H as [<-|[]]. right. right. right. destruct (Z.eqb (m_prev m) 1); auto.
Qed.

Record ust := mkU { u_cls : list Z; u_fin : bool }.

Definition u_step (u : ust) (x : sx) : ust :=
  if (tag x =? 19)%Z then mkU [] false
  else if (tag x =? 4)%Z then mkU (sx_Z (sx_nth x 2) :: u_cls u) (u_fin u)
  else if ((tag x =? 8)%Z && sx_bool (sx_nth x 1)) || (tag x =? 18)%Z then mkU (u_cls u) true
  else u.

Definition code_of_class (c : Z) : Z := if (c =? 0)%Z then 0%Z else if (c =? 1)%Z then 14%Z else 13%Z.

Definition u_check (m : mst) (u : ust) (x : sx) : bool :=
  if (tag x =? 30)%Z && (tag (sx_nth x 2) =? 0)%Z && is_upload_op (m_op m) then
    let code := sx_Z (sx_nth (sx_nth x 2) 1) in
    let wf := sx_bool (sx_nth (sx_nth x 2) 2) in
    negb (u_fin u) &&
    (if (code =? 0)%Z && up_wrote m then existsb (Z.eqb 0) (u_cls u) else true) &&
    (if wf && up_wrote m
     then existsb (fun c => ((c =? 0) || (c =? 1) || (c =? 2))%Z && (code =? code_of_class c)%Z) (u_cls u)
     else true)
  else true.

Fixpoint u_all (cfgsx objs : sx) (ops : list sx) (m : mst) (u : ust) (es : list sx) : bool :=
  match es with
  | [] => true
  | x :: r => u_check m u x && u_all cfgsx objs ops (mon_entry cfgsx objs ops m x) (u_step u x) r
  end.

(** while the monitor's final flag is set and no final-setting entry lies in the current op's
    segment, every finalizer of the segment was refused *)
Definition Uinv (m : mst) (u : ust) : Prop :=
  m_final m = true -> u_fin u = false -> Forall (fun c => c = 1%Z \/ c = 3%Z) (u_cls u).

Lemma Uinv_step o cfg bs cfgsx objs ops m u x e x' gx :
  G o (x_sys x) gx -> J m (x_sys x) gx -> replay_entry cfg bs x e = Some x' ->
  Uinv m u -> Uinv (mon_entry cfgsx objs ops m e) (u_step u e).
Proof.
  intros Hg Hj H U.
  destruct (mon_entry_fields cfgsx objs ops m e) as [_ [_ [_ [_ [_ [_ [F7 _]]]]]]].
  unfold Uinv, u_step. rewrite F7.
  destruct (Z.eqb_spec (tag e) 19) as [E19|N19]; [intros _ _; constructor|].
  destruct (Z.eqb_spec (tag e) 4) as [E4|N4].
  - rewrite E4. cbn [Z.eqb Pos.eqb andb orb u_cls u_fin]. rewrite !Bool.orb_false_r. intros Hf Hu.
    constructor; [|apply U; assumption].
    eapply mon03_no_ack_after_final; eauto.
  - destruct (((tag e =? 8)%Z && sx_bool (sx_nth e 1)) || (tag e =? 18)%Z)%bool eqn:C.
    + cbn [u_fin]. intros _ Hc. discriminate.
    + apply Bool.orb_false_iff in C. destruct C as [C1 C2]. rewrite C1, C2, !Bool.orb_false_r. exact U.
Qed.

Definition no23 (z : Z) : Prop := z <> 2%Z /\ z <> 3%Z.

Lemma existsb_Forall_contra (cls : list Z) (f : Z -> bool) :
  Forall (fun c => c = 1%Z \/ c = 3%Z) cls -> existsb f cls = true -> f 1%Z = true \/ f 3%Z = true.
Proof.
  intros F E. apply existsb_exists in E. destruct E as [c [Hin Hc]].
  rewrite Forall_forall in F. destruct (F c Hin) as [->| ->]; auto.
Qed.

Lemma entry_no23 cfgsx objs ops m u e z : Uinv m u -> u_check m u e = true ->
  In z (m_viol (mon_entry cfgsx objs ops m e)) -> In z (m_viol m) \/ no23 z.
Proof.
  intros U C Hin.
  destruct (mon_entry_viol _ _ _ _ _ _ Hin) as [H|[->|[[E30 [T0 [Hup H]]]|[_ [[->| ->] _]]]]];
    [left; exact H|right; split; discriminate| |right; split; discriminate|right; split; discriminate].
  unfold u_check in C. rewrite E30, T0, Hup in C. cbn [Z.eqb Pos.eqb andb] in C.
  apply andb_prop in C. destruct C as [C C3]. apply andb_prop in C. destruct C as [C1 C2].
  apply Bool.negb_true_iff in C1.
  destruct H as [[-> H]|[-> H]]; exfalso.
  - (* clause 2 *)
    apply andb_prop in H. destruct H as [H Hw]. apply andb_prop in H. destruct H as [Hc Hf].
    rewrite Hc, Hw in C2. cbn [andb] in C2.
    destruct (existsb_Forall_contra _ _ (U Hf C1) C2) as [X|X]; discriminate X.
  - (* clause 3 *)
    repeat (apply andb_prop in H; let H' := fresh "K" in destruct H as [H H']).
    rewrite K2, K1 in C3. cbn [andb] in C3.
    destruct (existsb_Forall_contra _ _ (U H C1) C3) as [X|X]; cbn in X.
    + unfold code_of_class in X. cbn in X. rewrite X in K. discriminate.
    + discriminate.
Qed.

Lemma entries_no23 o cfg bs cfgsx objs ops : forall es n m u x x1 gx,
  G o (x_sys x) gx -> J m (x_sys x) gx -> Uinv m u ->
  replay_entries cfg bs n x es = (x1, []) -> u_all cfgsx objs ops m u es = true ->
  forall z, In z (m_viol (fold_left (mon_entry cfgsx objs ops) es m)) -> In z (m_viol m) \/ no23 z.
Proof.
  induction es as [|e es IH]; intros n m u x x1 gx Hg Hj U H C z Hin; cbn in *.
  - left. exact Hin.
  - destruct (replay_entry cfg bs x e) as [x'|] eqn:R; [|discriminate].
    apply andb_prop in C. destruct C as [C1 C2].
    destruct (entry_inv o cfg bs cfgsx objs ops m x e x' gx Hg Hj R) as [gx' [Hp [Hg' [Hj' _]]]].
    pose proof (Uinv_step o cfg bs cfgsx objs ops m u x e x' gx Hg Hj R U) as U'.
    destruct (IH _ _ _ _ _ _ Hg' Hj' U' H C2 z Hin) as [Hz|Hz]; [|right; exact Hz].
    eapply entry_no23; eauto.
Qed.

Lemma Uinv_fresh m u : m_fresh m -> Uinv m u.
Proof. intros [_ [_ [_ [_ [_ [_ [Hf _]]]]]]] C. congruence. Qed.

Lemma u_step_restore u e0 : tag e0 = 0%Z -> u_step u e0 = u.
Proof. intros E. unfold u_step. rewrite E. reflexivity. Qed.

Lemma Uinv_restore cfgsx objs ops m u e0 : tag e0 = 0%Z -> m_fresh m -> Uinv (mon_entry cfgsx objs ops m e0) u.
Proof.
  intros E [_ [_ [_ [_ [_ [_ [Hf _]]]]]]] C.
  destruct (mon_entry_fields cfgsx objs ops m e0) as [_ [_ [_ [_ [_ [_ [F7 _]]]]]]].
  rewrite F7, Hf, E in C. discriminate C.
Qed.

Theorem mon03_clauses23_silent c cfg bs st0 now e0 es x0 x1 cfgsx objs ops m0 u0 :
  replay_restore c cfg bs st0 now e0 = Some x0 ->
  replay_entries cfg bs 1 x0 es = (x1, []) ->
  m_fresh m0 ->
  u_all cfgsx objs ops m0 u0 (e0 :: es) = true ->
  forall z, In z (m_viol (fold_left (mon_entry cfgsx objs ops) (e0 :: es) m0)) -> In z (m_viol m0) \/ no23 z.
Proof.
  intros Hr He Hf C z Hin. cbn [fold_left u_all] in *.
  destruct (replay_restore_init _ _ _ _ _ _ _ Hr) as [T0 [_ [alloc [oldest [init Hx0]]]]].
  pose proof (G_init alloc oldest init now) as Hg0. rewrite <- Hx0 in Hg0.
  pose proof (J_restore_entry cfgsx objs ops m0 e0 (x_sys x0) g0 T0 Hf) as Hj0.
  apply andb_prop in C. destruct C as [_ C]. rewrite (u_step_restore _ _ T0) in C.
  destruct (entries_no23 oldest cfg bs cfgsx objs ops es 1 _ u0 x0 x1 g0 Hg0 Hj0
              (Uinv_restore cfgsx objs ops m0 u0 e0 T0 Hf) He C z Hin) as [H|H]; [|right; exact H].
  rewrite (mon_entry_viol_other _ _ _ _ _) in H by (rewrite T0; discriminate). left. exact H.
Qed.
