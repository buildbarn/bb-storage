(** C14: the monitor of Run/R14.v is silent on every observation the judge
    accepts as agreeing with the model ([agree14 inp (run14 inp orc) res]),
    for every input and every oracle.  This covers the alternatives the judge
    admits because the code is nondeterministic or library-dependent (the
    alternative failure codes of a compressed upload, the set-valued answers of
    FindMissingBlobs, the cut of a failing compressed read).

    Hypotheses ([inp_wf]), each shown necessary by a witness at the end of
    this file:
      - identity ByteStream.Read: chunk size >= 1 and the injected Send
        failure carries a non-zero code;
      - client<->server cases: chunk size >= 1, Put/Get sizes at most the
        harness's ToByteSlice limit (1 MiB, [backend_max]), FindMissing sizes
        non-negative.
    harness/c14.go rejects chunk < 1, failure codes outside 1..16 and negative
    sizes; it does NOT bound Get sizes from above (a
    client<->server Get of an absent digest larger than 1 MiB is answered
    INVALID_ARGUMENT by model and ToByteSlice limit alike, while clause 11
    expects NOT_FOUND). *)
From Coq Require Import List ZArith Bool Lia.
Import ListNotations.
From BBS Require Import Common.Sx Rpc.ByteStream Rpc.Batch Rpc.ClientServer
  Rpc.ByteStreamProofs Rpc.BatchProofs Rpc.ClientServerProofs Run.MonSilentSx Run.R14.
Open Scope Z_scope.

Lemma bytes_eqb_refl a : bytes_eqb a a = true.
Proof. induction a as [|x a IH]; [reflexivity|]. cbn. rewrite Z.eqb_refl, IH. reflexivity. Qed.

Lemma bytes_eqb_eq a : forall b, bytes_eqb a b = true -> a = b.
Proof.
  induction a as [|x a IH]; intros [|y b] H; try discriminate; [reflexivity|].
  cbn in H. apply andb_prop in H. destruct H as [H1 H2]. apply Z.eqb_eq in H1. subst.
  f_equal. apply IH, H2.
Qed.

Lemma cl_false b n : b = false -> cl b n = [].
Proof. intros ->. reflexivity. Qed.

Lemma ident_eqb_enc d rest : ident_eqb (L (enc_ident d ++ rest)) d = true.
Proof. unfold ident_eqb, enc_ident. cbn. rewrite !Z.eqb_refl. reflexivity. Qed.

Lemma ident_eqb_enc' d : ident_eqb (L (enc_ident d)) d = true.
Proof. exact (ident_eqb_enc d []). Qed.

Lemma stored_bytes d x : sx_Zs (sx_nth (L (enc_ident d ++ [of_Zs x])) 2) = x.
Proof. exact (sx_Zs_of_Zs x). Qed.

Lemma is_prefix_refl x : is_prefix x x = true.
Proof. induction x as [|a x IH]; [reflexivity|]. cbn. rewrite Z.eqb_refl, IH. reflexivity. Qed.

Lemma is_prefix_app p rest : is_prefix p (p ++ rest) = true.
Proof. induction p as [|a p IH]; [reflexivity|]. cbn. rewrite Z.eqb_refl, IH. reflexivity. Qed.

Lemma sx_subset_nil a : sx_subset a [] = true -> a = [].
Proof. destruct a as [|x a]; [reflexivity|]. cbn. discriminate. Qed.

Lemma contiguous_b_true ms : forall woff, contiguous woff ms -> contiguous_b woff ms = true.
Proof.
  induction ms as [|m ms IH]; intros woff H; [reflexivity|].
  cbn in *. destruct H as [-> H]. rewrite Z.eqb_refl, (IH _ H). reflexivity.
Qed.

Lemma fin_last_only_true ms : finished_at_end ms -> fin_last_only ms = true.
Proof.
  intros (pre & l & -> & Hl & Hp). unfold fin_last_only. rewrite rev_app_distr. cbn.
  rewrite Hl. cbn. apply forallb_forall. intros m Hm. apply in_rev in Hm.
  rewrite Forall_forall in Hp. rewrite (Hp m Hm). reflexivity.
Qed.

Lemma upto_fin_finished pre post : finished_at_end pre -> upto_fin (pre ++ post) = pre.
Proof.
  intros (p & l & -> & Hl & Hp). induction Hp as [|m p Hm Hp IH].
  - cbn. rewrite Hl. reflexivity.
  - cbn. rewrite Hm. f_equal. exact IH.
Qed.

Lemma dec_term_nz s c : dec_term s = TErr c -> c <> 0.
Proof.
  unfold dec_term. destruct (sx_Z s =? 0) eqn:E; [discriminate|].
  intro H. inversion H. subst. apply Z.eqb_neq. exact E.
Qed.

Lemma dec_rn_spec blobs s :
  match dec_rn blobs s with
  | RIdentity d => d = rn_dig blobs s /\ sx_Z (sx_nth s 0) = 0 /\ 0 <= d_size d
  | RZstd d => d = rn_dig blobs s /\ sx_Z (sx_nth s 0) = 1 /\ 0 <= d_size d
  | ROther => True
  | RBad c => c <> 0
  end.
Proof.
  unfold dec_rn, rn_dig. destruct (sx_Z (sx_nth s 0) =? 3); [discriminate|].
  destruct (d_size _ <? 0) eqn:Es; [discriminate|]. apply Z.ltb_ge in Es.
  destruct (sx_Z (sx_nth s 0) =? 0) eqn:E0; [apply Z.eqb_eq in E0; auto|].
  destruct (sx_Z (sx_nth s 0) =? 1) eqn:E1; [apply Z.eqb_eq in E1; auto|exact I].
Qed.

Lemma dec_rn_bad blobs s c : dec_rn blobs s = RBad c -> c <> 0.
Proof. intro E. pose proof (dec_rn_spec blobs s) as H. rewrite E in H. exact H. Qed.

(** The write monitor, clause by clause (definitionally [mon_write]). *)
Definition w_ms (inp : sx) := map dec_msg (sx_list (sx_nth inp 3)).
Definition w_zstd (inp : sx) := sx_Z (sx_nth (sx_nth inp 2) 0) =? 1.
Definition w_used (inp : sx) := if w_zstd inp then upto_fin (w_ms inp) else w_ms inp.
Definition w_any (stored : list sx) := negb (match stored with [] => true | _ => false end).
Definition w_c1 inp stored :=
  w_any stored && match w_ms inp with m :: _ => negb (w_off m =? 0) | [] => true end.
Definition w_c2 inp stored :=
  w_any stored && negb (tail_contiguous (w_used inp) && fin_last_only (w_used inp)
                        && (w_zstd inp || match dec_term (sx_nth inp 4) with TEof => true | _ => false end)).
Definition w_good inp orc (stored : list sx) :=
  let blobs := dec_blobs (sx_nth inp 1) in
  let rk := sx_Z (sx_nth (sx_nth inp 2) 0) in
  let d := rn_dig blobs (sx_nth inp 2) in
  let payload := concat (map w_data (w_used inp)) in
  let content := if w_zstd inp then decoded (oracle_decompress (w_ms inp) orc payload) else Some payload in
  match stored, content with
  | [o], Some x => ((rk =? 0) || (rk =? 1)) && ident_eqb o d
                   && bytes_eqb (sx_Zs (sx_nth o 2)) x && valid (hash_of blobs) d x
  | _, _ => false
  end.

Lemma mon_write_eq inp orc res :
  mon_write inp orc res =
  let code := sx_Z (sx_nth res 0) in
  let stored := sx_list (sx_nth res 2) in
  cl (w_c1 inp stored) 1 ++ cl (w_c2 inp stored) 2 ++ cl (w_any stored && negb (w_good inp orc stored)) 3 ++
  cl (negb (code =? 0) && w_any stored) 4 ++ cl ((code =? 0) && negb (w_any stored)) 5.
Proof. reflexivity. Qed.

Definition model_write (inp orc : sx) : wres :=
  let blobs := dec_blobs (sx_nth inp 1) in
  write (hash_of blobs) (oracle_decompress (w_ms inp) orc) (sx_Z (sx_nth inp 5))
        (dec_rn blobs (sx_nth inp 2)) (w_ms inp) (dec_term (sx_nth inp 4)).

Lemma mon_write_nothing inp orc res :
  sx_nth res 2 = L [] -> sx_Z (sx_nth res 0) <> 0 -> mon_write inp orc res = [].
Proof.
  intros Hs Hc. rewrite mon_write_eq. cbv zeta. rewrite Hs. cbn [sx_list].
  apply Z.eqb_neq in Hc. rewrite Hc. reflexivity.
Qed.

Lemma mon_write_stored inp orc res x :
  wr_stored (model_write inp orc) = Some x ->
  sx_Z (sx_nth res 0) = wr_code (model_write inp orc) ->
  sx_nth res 2 = enc_stored (rn_dig (dec_blobs (sx_nth inp 1)) (sx_nth inp 2)) (Some x) ->
  mon_write inp orc res = [].
Proof.
  intros Hst Hcode Hres.
  assert (Hc0 : wr_code (model_write inp orc) = 0).
  { destruct (Z.eq_dec (wr_code (model_write inp orc)) 0) as [E|E]; [exact E|].
    unfold model_write in *. rewrite write_failure_stores_nothing in Hst by exact E. discriminate. }
  rewrite mon_write_eq. cbv zeta. rewrite Hres, Hcode, Hc0. cbn [enc_stored sx_list].
  set (blobs := dec_blobs (sx_nth inp 1)) in *.
  set (d := rn_dig blobs (sx_nth inp 2)) in *.
  set (o := L (enc_ident d ++ [of_Zs x])).
  assert (Hany : w_any [o] = true) by reflexivity.
  unfold model_write in Hst. fold blobs in Hst.
  (* both compressors: the part [U] of the stream the service consumed is a well-formed upload of [x] *)
  assert (HU : exists U post, w_ms inp = U ++ post /\ w_used inp = U /\ contiguous 0 U /\ finished_at_end U
            /\ w_zstd inp || match dec_term (sx_nth inp 4) with TEof => true | _ => false end = true
            /\ (sx_Z (sx_nth (sx_nth inp 2) 0) =? 0) || (sx_Z (sx_nth (sx_nth inp 2) 0) =? 1) = true
            /\ (if w_zstd inp then decoded (oracle_decompress (w_ms inp) orc (concat (map w_data U)))
                else Some (concat (map w_data U))) = Some x
            /\ valid (hash_of blobs) d x = true).
  { pose proof (dec_rn_spec blobs (sx_nth inp 2)) as Hrn. fold d in Hrn.
    destruct (dec_rn blobs (sx_nth inp 2)) as [d'|d'| |c].
    - destruct Hrn as (-> & Hrk & Hsz).
      destruct (write_identity_stores_only_if _ _ _ _ _ _ _ Hsz Hst) as (Hcont & Hfin & Ht & Hx & Hv & _).
      exists (w_ms inp), []. unfold w_used, w_zstd, payload in *. rewrite Hrk, Ht, app_nil_r, <- Hx. cbn [Z.eqb orb]. auto 10.
    - destruct Hrn as (-> & Hrk & Hsz).
      destruct (write_zstd_stores_only_if _ _ _ _ _ _ _ Hst) as (pre & post & Hms & Hcont & Hfin & Hdec & Hv).
      exists pre, post. unfold w_used, w_zstd, payload in *. rewrite Hrk, Hms. cbn [Z.eqb Pos.eqb orb].
      rewrite (upto_fin_finished _ _ Hfin), <- Hms. auto 10.
    - unfold write in Hst. destruct (w_ms inp); [destruct (dec_term _)|]; discriminate.
    - unfold write in Hst. destruct (w_ms inp); [destruct (dec_term _)|]; discriminate. }
  destruct HU as (U & post & Hms & Hu & Hcont & Hfin & Ht & Hrk & Hx & Hv).
  assert (Hne : exists m U', U = m :: U' /\ w_off m = 0 /\ contiguous (blen (w_data m)) U').
  { destruct U as [|m U']; [destruct Hfin as (p & l & E & _); destruct p; discriminate|].
    cbn in Hcont. destruct Hcont as [E Hc]. eauto. }
  destruct Hne as (m & U' & EU & Hoff & Hcont').
  assert (H1 : w_c1 inp [o] = false).
  { unfold w_c1. rewrite Hany, Hms, EU. cbn [andb app]. rewrite Hoff. reflexivity. }
  assert (H2 : w_c2 inp [o] = false).
  { unfold w_c2. rewrite Hany, Hu, Ht, (fin_last_only_true _ Hfin), EU. cbn [andb tail_contiguous].
    rewrite (contiguous_b_true _ _ Hcont'). reflexivity. }
  assert (H3 : w_good inp orc [o] = true).
  { unfold w_good. cbv zeta. fold blobs. fold d. rewrite Hu, Hx, Hrk. unfold o.
    rewrite ident_eqb_enc, stored_bytes, bytes_eqb_refl, Hv. reflexivity. }
  rewrite H1, H2, H3, Hany. reflexivity.
Qed.

Lemma silent_write inp orc res :
  sx_Z (sx_nth inp 0) = 0 ->
  agree14 inp (run14 inp orc) res = true -> mon_write inp orc res = [].
Proof.
  intros Hk. unfold agree14, run14. rewrite Hk. cbn [Z.eqb].
  unfold run_write. fold (w_ms inp).
  change (write _ _ _ _ _ _) with (model_write inp orc).
  set (r := model_write inp orc). set (d := rn_dig _ _).
  rewrite !sx_nth_L. cbn [nth sx_Z]. rewrite sx_Zs_of_Zs.
  intro H. apply orb_prop in H. destruct H as [H|H].
  - apply andb_prop in H. destruct H as [H Hs]. apply andb_prop in H. destruct H as [Hc _].
    apply Z.eqb_eq in Hc. apply sx_eqb_eq in Hs.
    destruct (wr_stored r) as [x|] eqn:Hst.
    + eapply mon_write_stored; eauto.
    + apply mon_write_nothing; [exact Hs|]. rewrite Hc. intro E.
      apply (write_ok_stores _ _ _ _ _ _ (dec_term_nz _) (dec_rn_bad _ _) E). exact Hst.
  - apply andb_prop in H. destruct H as [Hc Hs]. apply sx_eqb_eq in Hs.
    apply mon_write_nothing; [exact Hs|].
    apply existsb_exists in Hc. destruct Hc as (c & Hin & E). apply Z.eqb_eq in E. rewrite E.
    exact (write_alternatives_are_failures _ _ _ _ _ _ _ Hin).
Qed.

Section ReadKind.
  Variable inp : sx.
  Local Notation blobs := (dec_blobs (sx_nth inp 1)).
  Local Notation rk := (sx_Z (sx_nth (sx_nth inp 2) 0)).
  Local Notation d := (rn_dig blobs (sx_nth inp 2)).
  Local Notation x := (blob blobs (sx_Z (sx_nth (sx_nth inp 2) 1))).
  Local Notation bm := (sx_Z (sx_nth inp 3)).
  Local Notation k := (sx_Z (sx_nth inp 4)).
  Local Notation chunk := (sx_nat (sx_nth inp 6)).
  Local Notation sf := (dec_sendfail (sx_nth inp 7)).
  Local Notation get := (get_of_mode blobs bm x).
  Local Notation rn := (dec_rn blobs (sx_nth inp 2)).
  Local Notation suffix := (skipn (Z.to_nat k) x).

  Definition r_P : bool :=
    ((rk =? 0) || (rk =? 1)) && (bm =? 0) && valid (hash_of blobs) d x && (0 <=? k) && (k <=? blen x).

  Lemma mon_read_eq res :
    mon_read inp res =
    if negb (sx_Z (sx_nth inp 5) =? 0) then []
    else if r_P then
      match sf with
      | None => cl (negb ((sx_Z (sx_nth res 0) =? 0) && bytes_eqb (sx_Zs (sx_nth res 2)) suffix
                          && sx_bool (sx_nth res 3))) 6
      | Some _ => cl (negb (is_prefix (sx_Zs (sx_nth res 2)) suffix
                            && ((negb (sx_Z (sx_nth res 0) =? 0))
                                || (bytes_eqb (sx_Zs (sx_nth res 2)) suffix && sx_bool (sx_nth res 3))))) 6
      end
    else cl (negb (match sx_Zs (sx_nth res 2) with [] => true | _ => false end)) 6.
  Proof. reflexivity. Qed.

  Lemma read_present :
    r_P = true ->
    ((rk = 0 /\ rn = RIdentity d) \/ (rk = 1 /\ rn = RZstd d))
    /\ get d = inl x /\ offset_ok x k = true.
  Proof.
    unfold r_P. intro H.
    apply andb_prop in H. destruct H as [H H5]. apply andb_prop in H. destruct H as [H H4].
    apply andb_prop in H. destruct H as [H Hv]. apply andb_prop in H. destruct H as [Hrk Hbm].
    split; [|split].
    - assert (Hsz : (d_size d <? 0) = false).
      { apply Z.ltb_ge. rewrite <- (valid_size _ _ _ Hv). apply blen_nonneg. }
      unfold dec_rn. fold d. rewrite Hsz.
      apply orb_prop in Hrk. destruct Hrk as [E|E]; apply Z.eqb_eq in E; rewrite E; [left|right]; auto.
    - unfold get_of_mode. rewrite Hbm. unfold backend_get. rewrite Hv. reflexivity.
    - unfold offset_ok. rewrite H4, H5. reflexivity.
  Qed.

  Lemma read_absent pieces sf' :
    r_P = false ->
    exists c, c <> 0 /\ read fcompress rn 0 get k chunk pieces sf' = (c, []).
  Proof.
    intro HP. unfold read. cbn [Z.eqb negb].
    assert (Hget : forall d', d' = d -> (rk =? 0) || (rk =? 1) = true ->
              (exists c, c <> 0 /\ get d' = inr c)
              \/ (get d' = inl x /\ offset_ok x k = false)).
    { intros d' -> Hrk. unfold get_of_mode. destruct (bm =? 0) eqn:Ebm.
      - unfold backend_get. destruct (valid (hash_of blobs) d x) eqn:Ev.
        + right. split; [reflexivity|]. unfold r_P in HP. rewrite Hrk, Ebm, Ev in HP. exact HP.
        + left. exists cInternal. split; [discriminate|reflexivity].
      - left. destruct (bm =? 1); [exists cInternal; split; [discriminate|reflexivity]|].
        exists bm. split; [apply Z.eqb_neq; exact Ebm|reflexivity]. }
    pose proof (dec_rn_spec blobs (sx_nth inp 2)) as Hrn.
    destruct rn as [d'|d'| |c].
    - destruct Hrn as (Hd & Hrk & _).
      destruct (Hget d' Hd) as [(c & Hc & E)|(E & Ho)]; [rewrite Hrk; reflexivity| |].
      + exists c. unfold read_identity. rewrite E. auto.
      + exists cInvalidArgument. unfold read_identity. rewrite E, Ho. split; [discriminate|reflexivity].
    - destruct Hrn as (Hd & Hrk & _).
      destruct (Hget d' Hd) as [(c & Hc & E)|(E & Ho)]; [rewrite Hrk; reflexivity| |].
      + exists c. unfold read_zstd. rewrite E. auto.
      + exists cInvalidArgument. unfold read_zstd. rewrite E, Ho. split; [discriminate|reflexivity].
    - exists cUnimplemented. split; [discriminate|reflexivity].
    - exists c. split; [exact Hrn|reflexivity].
  Qed.

  Lemma run_read_absent :
    sx_Z (sx_nth inp 5) = 0 -> r_P = false ->
    exists c, c <> 0 /\ run_read inp = L [A c; L []; of_Zs []; A 1].
  Proof.
    intros El EP. unfold run_read. rewrite El.
    destruct (read_absent [] None EP) as (c1 & Hc1 & E1).
    destruct (read_absent [] sf EP) as (c2 & Hc2 & E2).
    destruct rn; [exists c2; rewrite E2|exists c1; rewrite E1|exists c2; rewrite E2|exists c2; rewrite E2];
      (split; [assumption|reflexivity]).
  Qed.

  Lemma run_read_present :
    sx_Z (sx_nth inp 5) = 0 -> r_P = true ->
    (rk = 0 /\ run_read inp = let '(c, msgs) := apply_sendfail sf (chunks_of chunk suffix) in
                              L [A c; L (map of_Zs msgs); of_Zs (concat msgs); A 1])
    \/ (rk = 1 /\ run_read inp = L [A 0; L []; of_Zs suffix; A 1]).
  Proof.
    intros El EP. destruct (read_present EP) as (Hcase & Hget & Hoff).
    unfold run_read, read. rewrite El. cbn [Z.eqb negb].
    destruct Hcase as [[Hrk Hrn]|[Hrk Hrn]]; rewrite Hrn; [left|right]; (split; [exact Hrk|]).
    - unfold read_identity. rewrite Hget, Hoff. reflexivity.
    - unfold read_zstd. rewrite Hget, Hoff. cbn [apply_sendfail]. rewrite cut_concat. reflexivity.
  Qed.

  Lemma run_read_err_nodata :
    sx_Z (sx_nth (run_read inp) 0) <> 0 -> rk = 1 -> sx_nth (run_read inp) 2 = L [].
  Proof.
    intros Hc Hrk. destruct (sx_Z (sx_nth inp 5) =? 0) eqn:El.
    - apply Z.eqb_eq in El. destruct r_P eqn:EP.
      + destruct (run_read_present El EP) as [[E _]|[_ Hm]]; [rewrite Hrk in E; discriminate|].
        rewrite Hm in Hc. exfalso. apply Hc. reflexivity.
      + destruct (run_read_absent El EP) as (c & _ & Hm). rewrite Hm. reflexivity.
    - unfold run_read, read. rewrite El. cbn [negb]. destruct rn; reflexivity.
  Qed.

  Lemma silent_read orc res :
    sx_Z (sx_nth inp 0) = 1 ->
    (rk = 0 -> (0 < chunk)%nat /\ forall j c, sf = Some (j, c) -> c <> 0) ->
    agree14 inp (run14 inp orc) res = true -> mon_read inp res = [].
  Proof.
    intros Hk Hwf. unfold run14. rewrite Hk.
    change (1 =? 0) with false. change (1 =? 1) with true. cbv iota.
    set (m := run_read inp). unfold agree14. rewrite Hk.
    change (1 =? 0) with false. change (1 =? 1) with true. cbv iota.
    rewrite mon_read_eq.
    destruct (sx_Z (sx_nth inp 5) =? 0) eqn:El; cbn [negb]; [|reflexivity].
    apply Z.eqb_eq in El.
    destruct r_P eqn:EP.
    - destruct (run_read_present El EP) as [[Hrk Hm]|[Hrk Hm]]; unfold m; rewrite Hm, Hrk.
      + (* identity *)
        change (0 =? 1) with false. cbv iota. intro H. apply sx_eqb_eq in H. subst res.
        destruct (Hwf Hrk) as [Hchunk Hsf].
        pose proof (chunks_of_concat chunk suffix Hchunk) as Hcc.
        destruct (apply_sendfail sf (chunks_of chunk suffix)) as [c msgs] eqn:E.
        rewrite !sx_nth_L. cbn [nth sx_Z]. rewrite sx_Zs_of_Zs.
        apply apply_sendfail_cases in E. destruct E as [[-> ->]|(j & Esf & ->)].
        * rewrite Hcc, is_prefix_refl, bytes_eqb_refl. destruct sf as [[? ?]|]; reflexivity.
        * rewrite Esf. destruct (firstn_concat_prefix j (chunks_of chunk suffix)) as (rest & Hr).
          rewrite Hcc in Hr. set (pre := concat (firstn j (chunks_of chunk suffix))) in *.
          rewrite Hr, is_prefix_app.
          assert (Hfc : (c =? 0) = false) by (apply Z.eqb_neq; eapply Hsf, Esf).
          rewrite Hfc. reflexivity.
      + (* zstd: compared on the decoded stream *)
        change (1 =? 1) with true. cbv iota. rewrite !sx_nth_L. cbn [nth sx_Z]. rewrite sx_Zs_of_Zs.
        destruct sf as [[j fc]|].
        * change (negb (0 =? 0)) with false. cbv iota.
          destruct (sx_Z (sx_nth res 0) =? 0) eqn:Ec.
          -- intro H. apply andb_prop in H. destruct H as [H2 H3].
             apply sx_eqb_eq in H2. apply sx_eqb_eq in H3. rewrite H2, H3, sx_Zs_of_Zs.
             rewrite is_prefix_refl, bytes_eqb_refl. reflexivity.
          -- intro H. apply andb_prop in H. destruct H as [_ Hp]. rewrite Hp. reflexivity.
        * intro H. apply andb_prop in H. destruct H as [H H3]. apply andb_prop in H. destruct H as [H0 H2].
          apply sx_eqb_eq in H0. apply sx_eqb_eq in H2. apply sx_eqb_eq in H3.
          rewrite H0, H2, H3, sx_Zs_of_Zs, bytes_eqb_refl. reflexivity.
    - destruct (run_read_absent El EP) as (c & Hc & Hm). unfold m. rewrite Hm, !sx_nth_L. cbn [nth sx_Z].
      apply Z.eqb_neq in Hc. destruct (rk =? 1).
      + rewrite Hc. cbn [negb]. destruct sf as [[j fc]|].
        * intro H. apply andb_prop in H. destruct H as [_ H2]. apply sx_eqb_eq in H2.
          rewrite H2. reflexivity.
        * intro H. apply andb_prop in H. destruct H as [H _]. apply andb_prop in H. destruct H as [_ H2].
          apply sx_eqb_eq in H2. rewrite H2. reflexivity.
      + intro H. apply sx_eqb_eq in H. subst res. reflexivity.
  Qed.
End ReadKind.

Lemma combine_map_self {A B} (g : A -> B) l : combine l (map g l) = map (fun e => (e, g e)) l.
Proof. induction l as [|a l IH]; [reflexivity|]. cbn. rewrite IH. reflexivity. Qed.

Lemma combine_map_l {A B} (f : A -> B) l : combine (map f l) l = map (fun e => (f e, e)) l.
Proof. induction l as [|a l IH]; [reflexivity|]. cbn. rewrite IH. reflexivity. Qed.

Lemma silent_batch_update inp orc res :
  sx_Z (sx_nth inp 0) = 2 ->
  agree14 inp (run14 inp orc) res = true -> mon_batch_update inp res = [].
Proof.
  intros Hk. unfold agree14, run14. rewrite Hk. cbn [Z.eqb Pos.eqb].
  intro H. apply sx_eqb_eq in H. subst res.
  unfold mon_batch_update, run_batch_update. cbv zeta.
  generalize (map (dec_uentry (dec_blobs (sx_nth inp 1))) (sx_list (sx_nth inp 2))) as es.
  generalize (hash_of (dec_blobs (sx_nth inp 1))) as hashf. intros hashf es.
  unfold batch_update. rewrite map_map.
  match goal with |- context [map ?g es] => match g with context [batch_update_entry] => set (G := g) end end.
  assert (HG : forall e, (fst (G e) = 0 <-> snd (G e) <> None)
     /\ (forall y, snd (G e) = Some y -> y = snd (fst e) /\ valid hashf (fst (fst e)) (snd (fst e)) = true)).
  { intros [[d data] pm]. unfold G. cbn [fst snd].
    destruct (batch_update_entry hashf d data (upd_mode es d)) as [c o] eqn:E.
    destruct (batch_update_entry_spec _ _ _ _ _ _ E) as [Ha Hb]. cbn [fst snd]. split; [exact Ha|].
    intros y Hy. destruct (Hb y Hy) as (A1 & A2 & _). auto. }
  clearbody G. change (option (list Z)) with (option bytes).
  rewrite !sx_nth_L. cbn [nth sx_Z sx_list]. cbn [Z.eqb andb].
  rewrite combine_map_self, map_map. cbn [fst snd].
  set (st := fun e : dig * bytes * Z => L [L (enc_ident (fst (fst e))); A (fst (G e))]).
  rewrite combine_map_l.
  set (stored := flat_map _ _).
  assert (Hst : forall o, In o stored <->
            exists e y, In e es /\ snd (G e) = Some y /\ o = L (enc_ident (fst (fst e)) ++ [of_Zs y])).
  { intro o. unfold stored. rewrite in_flat_map. split.
    - intros (p & Hp & Ho). apply in_map_iff in Hp. destruct Hp as (e & <- & He). cbn [fst snd] in Ho.
      destruct (snd (G e)) as [y|] eqn:Ey; [|destruct Ho]. destruct Ho as [<-|[]]. eauto.
    - intros (e & y & He & Ey & ->). exists (e, G e). split; [apply in_map_iff; eauto|].
      cbn [fst snd]. rewrite Ey. left. reflexivity. }
  apply cl_false, negb_false_iff.
  apply andb_true_intro; split; [apply andb_true_intro; split|].
  - rewrite map_length, Nat.eqb_refl. cbn [andb]. apply forallb_forall. intros p Hp.
    apply in_map_iff in Hp. destruct Hp as (e & <- & He). cbn [fst snd]. unfold st.
    rewrite sx_nth_L. cbn [nth]. apply ident_eqb_enc'.
  - apply forallb_forall. intros o Ho. apply Hst in Ho. destruct Ho as (e & y & He & Ey & ->).
    apply existsb_exists. exists (st e, e). split; [apply in_map_iff; eauto|]. cbn [fst snd].
    destruct (HG e) as [H1 H2]. destruct (H2 y Ey) as [-> Hv].
    rewrite ident_eqb_enc, Hv, stored_bytes, bytes_eqb_refl. unfold st. rewrite sx_nth_L. cbn [nth sx_Z andb].
    apply Z.eqb_eq, H1. rewrite Ey. discriminate.
  - apply forallb_forall. intros p Hp. apply in_map_iff in Hp. destruct Hp as (e & <- & He).
    cbn [fst snd]. unfold st at 1. rewrite sx_nth_L. cbn [nth sx_Z].
    destruct (fst (G e) =? 0) eqn:E; [|reflexivity]. cbn [negb orb].
    destruct (HG e) as [H1 H2]. apply Z.eqb_eq in E. apply H1 in E.
    destruct (snd (G e)) as [y|] eqn:Ey; [|contradiction]. destruct (H2 y eq_refl) as [-> _].
    apply existsb_exists. exists (L (enc_ident (fst (fst e)) ++ [of_Zs (snd (fst e))])). split.
    + apply Hst. eauto.
    + rewrite ident_eqb_enc, stored_bytes, bytes_eqb_refl. reflexivity.
Qed.

Lemma rd_mode_inr_nz (es : list (dig * Z * bytes)) d : forall acc : bytes + Z,
  (forall c, acc = inr c -> c <> 0) ->
  forall c, fold_left (fun (acc : bytes + Z) (e : dig * Z * bytes) => if dig_eqb (fst (fst e)) d then
                          (let bm := snd (fst e) in
                           if bm =? 0 then inl (snd e) else if bm =? 1 then inr 1 else inr bm)
                        else acc) es acc = inr c -> c <> 0.
Proof.
  induction es as [|e es IH]; intros acc Hacc c; cbn [fold_left]; [apply Hacc|].
  apply IH. destruct (dig_eqb (fst (fst e)) d); [|exact Hacc]. cbv zeta.
  destruct (snd (fst e) =? 0) eqn:E0; [discriminate|].
  destruct (snd (fst e) =? 1); intros c' H; inversion H; subst; [discriminate|].
  apply Z.eqb_neq. exact E0.
Qed.

Lemma silent_batch_read inp orc res :
  sx_Z (sx_nth inp 0) = 3 ->
  agree14 inp (run14 inp orc) res = true -> mon_batch_read inp res = [].
Proof.
  intros Hk. unfold agree14, run14. rewrite Hk. cbn [Z.eqb Pos.eqb].
  intro H. apply sx_eqb_eq in H. subst res.
  unfold mon_batch_read, run_batch_read. cbv zeta.
  set (blobs := dec_blobs (sx_nth inp 1)).
  set (es := map (dec_rentry blobs) (sx_list (sx_nth inp 2))).
  set (ds := map (fun e : dig * Z * bytes => fst (fst e)) es).
  destruct (batch_read (rd_get blobs es) (sx_Z (sx_nth inp 3)) ds) as [rs|] eqn:Hb.
  2:{ reflexivity. }
  apply batch_read_some in Hb. subst rs.
  rewrite !sx_nth_L. cbn [nth sx_Z sx_list]. cbn [Z.eqb negb].
  rewrite combine_map_self. unfold ds. rewrite !map_map. cbn [fst snd].
  set (r := fun e : dig * Z * bytes => L [L (enc_ident (fst (fst e)));
                 A (fst (batch_read_entry (rd_get blobs es) (fst (fst e))));
                 of_Zs (snd (batch_read_entry (rd_get blobs es) (fst (fst e))))]).
  change (map _ es) with (map r es). rewrite combine_map_l, map_length, Nat.eqb_refl. cbn [andb].
  apply cl_false, negb_false_iff, forallb_forall. intros p Hp.
  apply in_map_iff in Hp. destruct Hp as (e & <- & He). cbn [fst snd]. unfold r.
  rewrite !sx_nth_L. cbn [nth sx_Z]. rewrite ident_eqb_enc', sx_Zs_of_Zs. cbn [andb].
  unfold batch_read_entry, rd_get.
  destruct (rd_mode es (fst (fst e))) as [y|c] eqn:Em.
  - unfold backend_get. destruct (valid (hash_of blobs) (fst (fst e)) y); cbn [fst snd].
    + rewrite bytes_eqb_refl. reflexivity.
    + reflexivity.
  - assert (Hc : c <> 0).
    { unfold rd_mode in Em. eapply rd_mode_inr_nz; [|exact Em]. intros c' H. inversion H. discriminate. }
    destruct (c =? 1); cbn [fst snd]; [reflexivity|].
    apply Z.eqb_neq in Hc. rewrite Hc. reflexivity.
Qed.

Lemma existsb_map {A B} (f : B -> bool) (g : A -> B) l : existsb f (map g l) = existsb (fun a => f (g a)) l.
Proof. induction l as [|a l IH]; [reflexivity|]. cbn. rewrite IH. reflexivity. Qed.

Lemma sx_subset_in a b x : sx_subset a b = true -> In x a -> In x b.
Proof.
  unfold sx_subset. rewrite forallb_forall. intros H Hx. specialize (H x Hx).
  apply existsb_exists in H. destruct H as (y & Hy & E). apply sx_eqb_eq in E. subst. exact Hy.
Qed.

Lemma sx_subset_refl l : sx_subset l l = true.
Proof.
  unfold sx_subset. apply forallb_forall. intros z Hz. apply existsb_exists.
  exists z. split; [exact Hz|apply sx_eqb_refl].
Qed.

Lemma sx_seteq_refl l : sx_seteq l l = true.
Proof. unfold sx_seteq. rewrite sx_subset_refl. reflexivity. Qed.

(** What the monitor demands of a FindMissing answer [msl], given the keys
    asked for, the backend's missing predicate and the model's exact answer [ms]. *)
Lemma fm_demands {K} (enc : K -> sx) (is_k : sx -> K -> bool) (ks : list K) (miss : K -> bool)
      (msl : list sx) (ms : list K) :
  (forall k, is_k (enc k) k = true) ->
  (forall k, In k ms <-> In k ks /\ miss k = true) ->
  sx_seteq msl (map enc ms) = true ->
  forallb (fun m => existsb (fun k => is_k m k && miss k) ks) msl = true
  /\ forallb (fun k => negb (miss k) || existsb (fun m => is_k m k) msl) ks = true.
Proof.
  intros Henc Hex H. unfold sx_seteq in H. apply andb_prop in H. destruct H as [H1 H2]. split.
  - apply forallb_forall. intros m Hm. apply (sx_subset_in _ _ _ H1) in Hm.
    apply in_map_iff in Hm. destruct Hm as (k & <- & Hk). apply Hex in Hk. destruct Hk as [Hk Hmiss].
    apply existsb_exists. exists k. split; [exact Hk|]. rewrite Henc, Hmiss. reflexivity.
  - apply forallb_forall. intros k Hk. destruct (miss k) eqn:Hmiss; [|reflexivity]. cbn [negb orb].
    apply existsb_exists. exists (enc k). split; [|apply Henc].
    apply (sx_subset_in _ _ _ H2). apply in_map. apply Hex. auto.
Qed.

Lemma fm_generic (ds : list dig) (miss : dig -> bool) (msl : list sx) :
  sx_seteq msl (map (fun d => L (enc_ident d)) (filter miss ds)) = true ->
  forallb (fun m => existsb (fun d => ident_eqb m d && miss d) ds) msl = true
  /\ forallb (fun d => negb (miss d) || existsb (fun m => ident_eqb m d) msl) ds = true.
Proof. apply fm_demands; [exact ident_eqb_enc'|]. intro d. apply filter_In. Qed.

Lemma forallb_ext' {A} (f g : A -> bool) l : (forall a, f a = g a) -> forallb f l = forallb g l.
Proof. intro H. induction l as [|a l IH]; [reflexivity|]. cbn. rewrite H, IH. reflexivity. Qed.

Lemma fm_error_agree res c :
  sx_eqb (sx_nth res 0) (A c) && sx_seteq (sx_list (sx_nth res 1)) [] = true ->
  sx_nth res 0 = A c /\ sx_list (sx_nth res 1) = [].
Proof.
  intro H. apply andb_prop in H. destruct H as [H0 H1]. apply sx_eqb_eq in H0.
  unfold sx_seteq in H1. apply andb_prop in H1. destruct H1 as [H1 _]. apply sx_subset_nil in H1. auto.
Qed.

Lemma silent_find_missing inp orc res :
  sx_Z (sx_nth inp 0) = 4 ->
  agree14 inp (run14 inp orc) res = true -> mon_find_missing inp res = [].
Proof.
  intros Hk. unfold agree14, run14. rewrite Hk. cbn [Z.eqb Pos.eqb].
  unfold mon_find_missing, run_find_missing. cbv zeta.
  set (blobs := dec_blobs (sx_nth inp 1)).
  remember (map (dec_fentry blobs) (sx_list (sx_nth inp 2))) as es eqn:Hes. clear Hes.
  destruct es as [|e0 es'] eqn:Ees.
  - cbn [map find_missing]. rewrite !sx_nth_L. cbn [nth sx_list map]. intro H.
    destruct (fm_error_agree _ _ H) as [H0 H1]. rewrite H0, H1. cbn [existsb orb sx_Z].
    destruct (negb (sx_Z (sx_nth inp 3) =? 0)); reflexivity.
  - rewrite <- Ees. rewrite find_missing_ne by (subst es; discriminate).
    rewrite existsb_map.
    destruct (existsb (fun a => d_size (fst a) <? 0) es) eqn:Eill.
    + cbn [orb]. rewrite !sx_nth_L. cbn [nth sx_list map]. intro H.
      destruct (fm_error_agree _ _ H) as [H0 H1]. rewrite H0, H1. reflexivity.
    + cbn [orb]. destruct (sx_Z (sx_nth inp 3) =? 0) eqn:Efm; cbn [negb].
      * rewrite !sx_nth_L. cbn [nth sx_list]. intro H. apply andb_prop in H. destruct H as [H0 H1].
        apply sx_eqb_eq in H0. rewrite H0. cbn [sx_Z Z.eqb andb].
        destruct (fm_generic (map fst es) (fm_missing es) _ H1) as [G1 G2].
        apply cl_false, negb_false_iff. apply andb_true_intro. split.
        -- rewrite <- G1. apply forallb_ext'. intro m. rewrite existsb_map. reflexivity.
        -- rewrite forallb_forall in G2. apply forallb_forall. intros e He. apply G2.
           apply in_map. exact He.
      * rewrite !sx_nth_L. cbn [nth sx_list map]. intro H.
        destruct (fm_error_agree _ _ H) as [H0 H1]. rewrite H0, H1. cbn [sx_Z]. rewrite Efm.
        destruct es; reflexivity.
Qed.

Lemma silent_ac inp orc res :
  (sx_Z (sx_nth inp 0) =? 0) = false -> (sx_Z (sx_nth inp 0) =? 1) = false -> (sx_Z (sx_nth inp 0) =? 2) = false ->
  (sx_Z (sx_nth inp 0) =? 3) = false -> (sx_Z (sx_nth inp 0) =? 4) = false -> (sx_Z (sx_nth inp 0) =? 5) = false ->
  agree14 inp (run14 inp orc) res = true -> mon_ac inp res = [].
Proof.
  intros E0 E1 E2 E3 E4 E5. unfold agree14, run14. rewrite E0, E1, E2, E3, E4, E5.
  intro H. unfold mon_ac. rewrite H. reflexivity.
Qed.

Lemma fround_trip : forall y, fdecompress (fcompress y) = DOk y.
Proof. reflexivity. Qed.

(** [hash_of]: equal non-zero indices name the same byte string. *)
Lemma index_of_spec y : forall l i j, 0 < i -> index_of y l i = j ->
  (j = 0 /\ ~ In y l) \/ (i <= j /\ nth_error l (Z.to_nat (j - i)) = Some y).
Proof.
  induction l as [|z l IH]; intros i j Hi H; cbn [index_of] in H.
  - left. split; [auto|intros []].
  - destruct (bytes_eqb y z) eqn:E.
    + apply bytes_eqb_eq in E. subst. right. split; [lia|]. rewrite Z.sub_diag. reflexivity.
    + destruct (IH (i + 1) j ltac:(lia) H) as [[Hj Hn]|[Hj Hn]].
      * left. split; [exact Hj|]. intros [->|Hin]; [rewrite bytes_eqb_refl in E; discriminate|contradiction].
      * right. split; [lia|]. replace (Z.to_nat (j - i)) with (S (Z.to_nat (j - (i + 1)))) by lia. exact Hn.
Qed.

Lemma hash_of_nil_eq blobs bi :
  hash_of blobs [] = hash_of blobs (blob blobs bi) -> blob blobs bi = [].
Proof.
  unfold blob. destruct (nth_in_or_default (Z.to_nat bi) blobs []) as [Hin|E]; [|intros _; exact E].
  set (x := nth (Z.to_nat bi) blobs []) in *. unfold hash_of. intro H.
  destruct (index_of_spec x blobs 1 _ ltac:(lia) eq_refl) as [[_ Hn]|[Hj Hx]]; [contradiction|].
  destruct (index_of_spec [] blobs 1 _ ltac:(lia) eq_refl) as [[H0 _]|[_ Hy]].
  - rewrite <- H in Hj. lia.
  - rewrite H in Hy. rewrite Hx in Hy. inversion Hy. reflexivity.
Qed.

Definition st_valid (blobs : list bytes) (st : store) : Prop :=
  forall d y, In (d, y) st -> valid (hash_of blobs) d y = true.

Lemma st_get_some st d y : st_get st d = Some y -> In (d, y) st.
Proof.
  unfold st_get. destruct (find (fun e => dig_eqb (fst e) d) st) as [[d' y']|] eqn:E; [|discriminate].
  intro H. inversion H. subst. apply find_some in E. destruct E as [Hin Hd]. cbn in Hd.
  apply dig_eqb_true_iff in Hd. subst. exact Hin.
Qed.

Lemma st_put_valid blobs st d y :
  st_valid blobs st -> valid (hash_of blobs) d y = true -> st_valid blobs (st_put st d y).
Proof.
  intros Hst Hv d' y' [E|Hin].
  - inversion E. subst. exact Hv.
  - apply filter_In in Hin. destruct Hin as [Hin _]. eapply Hst; eauto.
Qed.

Definition op_wf (blobs : list bytes) (op : sx) : Prop :=
  let k := sx_Z (sx_nth op 0) in
  if k =? 0 then blen (blob blobs (sx_Z (sx_nth op 1))) <= backend_max
  else if k =? 1 then sx_Z (sx_nth op 2) <= backend_max
  else Forall (fun e => 0 <= sx_Z (sx_nth e 1)) (sx_list (sx_nth op 1)).

Lemma client_put_model blobs zstd chunk bi size :
  (0 < chunk)%nat -> blen (blob blobs bi) <= backend_max ->
  let d := mkD (hash_of blobs (blob blobs bi)) size in
  let x := blob blobs bi in
  let r := client_put (hash_of blobs) fdecompress fcompress zstd chunk [] d x in
  wr_stored r = (if valid (hash_of blobs) d x then Some x else None)
  /\ (wr_code r =? 0) = valid (hash_of blobs) d x.
Proof.
  intros Hc Hm d x r. destruct (valid (hash_of blobs) d x) eqn:Hv.
  - assert (Hs : d_size d <= backend_max).
    { rewrite <- (valid_size _ _ _ Hv). exact Hm. }
    unfold r. destruct zstd.
    + rewrite (client_put_zstd_stores _ _ _ fround_trip _ _ _ _ Hv Hs). split; reflexivity.
    + rewrite (client_put_identity_stores _ fdecompress fcompress _ _ _ _ Hv Hc Hs). split; reflexivity.
  - unfold r, client_put. rewrite Hv. cbn [wr_code wr_stored]. split; [|reflexivity].
    destruct zstd; [|reflexivity].
    change (client_msgs []) with [mkW 0 [] true]. cbn [write]. unfold write_zstd.
    cbn [w_off w_data w_fin z_recv]. change (negb (0 =? 0)) with false. cbv iota.
    destruct (backend_max <? d_size d); [reflexivity|]. cbn [app fdecompress].
    destruct (valid (hash_of blobs) d []) eqn:Hv0; [|reflexivity]. exfalso.
    unfold valid in Hv0, Hv. cbn [d_size d_hash d] in Hv0, Hv.
    apply andb_prop in Hv0. destruct Hv0 as [H1 H2]. apply Z.eqb_eq in H2.
    apply hash_of_nil_eq in H2. unfold x in Hv. rewrite H2 in Hv. rewrite H1, Z.eqb_refl in Hv. discriminate.
Qed.

Lemma client_get_model blobs zstd chunk st d :
  (0 < chunk)%nat -> d_size d <= backend_max -> st_valid blobs st ->
  client_get (hash_of blobs) fdecompress fcompress zstd chunk [] []
             (fun d' => backend_get (hash_of blobs) (st_get st d') d') d
  = match st_get st d with Some y => inl y | None => inr cNotFound end.
Proof.
  intros Hc Hm Hst.
  rewrite (client_get_validating _ _ _ fround_trip) with (held := st_get st d) by (assumption || reflexivity).
  unfold backend_get. destruct (st_get st d) as [y|] eqn:Eg; [|reflexivity].
  rewrite (Hst d y (st_get_some _ _ _ Eg)). reflexivity.
Qed.

Lemma silent_cs_ops blobs zstd chunk : (0 < chunk)%nat ->
  forall ops st rs stf ms,
    st_valid blobs st -> Forall (op_wf blobs) ops ->
    cs_ops blobs zstd chunk st ops = (stf, ms) ->
    cs_res_all ops rs ms = true ->
    mon_cs_ops blobs st ops rs = (true, stf).
Proof.
  intros Hc. induction ops as [|op ops IH]; intros st rs stf ms Hst Hwf Hrun Hag.
  - cbn in Hrun. inversion Hrun. subst. destruct rs; [reflexivity|discriminate].
  - cbn [cs_ops] in Hrun.
    destruct (cs_op blobs zstd chunk st op) as [st1 m] eqn:Eop.
    destruct (cs_ops blobs zstd chunk st1 ops) as [st2 ms'] eqn:Eops.
    inversion Hrun. subst stf ms. clear Hrun.
    destruct rs as [|r rs]; [discriminate|]. cbn [cs_res_all] in Hag.
    apply andb_prop in Hag. destruct Hag as [Hr Hag].
    inversion Hwf as [|? ? Hop Hwf']. subst.
    cbn [mon_cs_ops]. unfold cs_op in Eop. unfold cs_res_eqb in Hr. unfold op_wf in Hop. cbv zeta in Hop.
    destruct (sx_Z (sx_nth op 0) =? 0) eqn:E0.
    + (* Put *)
      apply Z.eqb_eq in E0. rewrite E0 in Hr. apply sx_eqb_eq in Hr. subst r.
      destruct (client_put_model blobs zstd chunk (sx_Z (sx_nth op 1)) (sx_Z (sx_nth op 2)) Hc Hop) as [Hstored Hcode].
      unfold dec_dig in *. rewrite Hstored in Eop. inversion Eop. subst st1 m.
      rewrite sx_nth_L. cbn [nth sx_Z]. rewrite Hcode.
      destruct (valid (hash_of blobs) _ (blob blobs (sx_Z (sx_nth op 1)))) eqn:Hv.
      * eapply IH; eauto. apply st_put_valid; assumption.
      * eapply IH; eauto.
    + destruct (sx_Z (sx_nth op 0) =? 1) eqn:E1.
      * (* Get *)
        apply Z.eqb_eq in E1. rewrite E1 in Hr. apply sx_eqb_eq in Hr. subst r.
        rewrite (client_get_model blobs zstd chunk st (dec_dig blobs (sx_nth op 1) (sx_nth op 2)) Hc Hop Hst) in Eop.
        destruct (st_get st (dec_dig blobs (sx_nth op 1) (sx_nth op 2))) as [y|] eqn:Eg;
          inversion Eop; subst st1 m; rewrite !sx_nth_L; cbn [nth sx_Z].
        -- rewrite sx_Zs_of_Zs, bytes_eqb_refl. cbn [Z.eqb andb]. eapply IH; eauto.
        -- cbn. eapply IH; eauto.
      * (* FindMissing *)
        set (ds := map (fun e => dec_dig blobs (sx_nth e 0) (sx_nth e 1)) (sx_list (sx_nth op 1))) in *.
        set (miss := fun d0 : dig => match st_get st d0 with Some _ => false | None => true end) in *.
        rewrite (find_missing_answers miss ds) in Eop by (apply Forall_map; exact Hop).
        inversion Eop. subst st1 m. clear Eop.
        assert (Hr' : sx_eqb (sx_nth r 0) (A 0) = true
                      /\ sx_seteq (sx_list (sx_nth r 1)) (map (fun d0 => L (enc_ident d0)) (filter miss ds)) = true).
        { destruct (sx_Z (sx_nth op 0) =? 2).
          - apply andb_prop in Hr. exact Hr.
          - apply sx_eqb_eq in Hr. subst r. rewrite !sx_nth_L. cbn [nth sx_list]. split; [reflexivity|].
            apply sx_seteq_refl. }
        destruct Hr' as [Hr0 Hr1]. apply sx_eqb_eq in Hr0. rewrite Hr0. cbn [sx_Z Z.eqb andb].
        destruct (fm_generic ds miss _ Hr1) as [G1 G2]. unfold miss in G1, G2. cbv beta in G1, G2.
        rewrite G1, G2. cbn [andb].
        eapply IH; eauto.
Qed.

Definition cs_wf (inp : sx) : Prop :=
  (0 < sx_nat (sx_nth inp 3))%nat
  /\ Forall (op_wf (dec_blobs (sx_nth inp 1))) (sx_list (sx_nth inp 4)).

Lemma silent_cs inp orc res :
  sx_Z (sx_nth inp 0) = 5 -> cs_wf inp ->
  agree14 inp (run14 inp orc) res = true -> mon_cs inp res = [].
Proof.
  intros Hk [Hc Hops]. unfold agree14, run14. rewrite Hk. cbn [Z.eqb Pos.eqb].
  unfold run_cs, mon_cs.
  destruct (cs_ops (dec_blobs (sx_nth inp 1)) (negb (sx_Z (sx_nth inp 2) =? 0)) (sx_nat (sx_nth inp 3)) []
                   (sx_list (sx_nth inp 4))) as [stf ms] eqn:Erun.
  rewrite !sx_nth_L. cbn [nth sx_list].
  intro H. apply andb_prop in H. destruct H as [H Hset]. apply andb_prop in H. destruct H as [Hall _].
  rewrite (silent_cs_ops _ _ _ Hc _ _ _ _ _ (fun d y (F : In (d, y) []) => match F with end) Hops Erun Hall).
  rewrite Hset. reflexivity.
Qed.

Definition inp_wf (inp : sx) : Prop :=
  (sx_Z (sx_nth inp 0) = 1 -> sx_Z (sx_nth (sx_nth inp 2) 0) = 0 ->
     (0 < sx_nat (sx_nth inp 6))%nat
     /\ forall j c, dec_sendfail (sx_nth inp 7) = Some (j, c) -> c <> 0)
  /\ (sx_Z (sx_nth inp 0) = 5 -> cs_wf inp).

Theorem mon14_silent_on_agreeing : forall inp obs,
  inp_wf inp ->
  agree14 inp (run14 inp (sx_nth obs 0)) (sx_nth obs 1) = true ->
  mon14 inp obs = [].
Proof.
  intros inp obs [Hr Hcs] Hag. unfold mon14. cbv zeta.
  destruct (sx_Z (sx_nth inp 0) =? 0) eqn:E0; [apply Z.eqb_eq in E0; eapply silent_write; eauto|].
  destruct (sx_Z (sx_nth inp 0) =? 1) eqn:E1; [apply Z.eqb_eq in E1; eapply silent_read; eauto|].
  destruct (sx_Z (sx_nth inp 0) =? 2) eqn:E2; [apply Z.eqb_eq in E2; eapply silent_batch_update; eauto|].
  destruct (sx_Z (sx_nth inp 0) =? 3) eqn:E3; [apply Z.eqb_eq in E3; eapply silent_batch_read; eauto|].
  destruct (sx_Z (sx_nth inp 0) =? 4) eqn:E4; [apply Z.eqb_eq in E4; eapply silent_find_missing; eauto|].
  destruct (sx_Z (sx_nth inp 0) =? 5) eqn:E5; [apply Z.eqb_eq in E5; eapply silent_cs; eauto|].
  exact (silent_ac inp _ _ E0 E1 E2 E3 E4 E5 Hag).
Qed.

(** The model's own (primary) outcome, in the shape of an implementation
    result, is one of the observations the judge accepts. *)
Definition model_res (inp orc : sx) : sx :=
  let m := run14 inp orc in
  if sx_Z (sx_nth inp 0) =? 0 then L [sx_nth m 0; sx_nth m 2; sx_nth m 3] else m.

Lemma cs_ops_res_refl blobs zstd chunk : forall ops st stf ms,
  cs_ops blobs zstd chunk st ops = (stf, ms) -> cs_res_all ops ms ms = true.
Proof.
  induction ops as [|op ops IH]; intros st stf ms H; cbn [cs_ops] in H.
  - inversion H. reflexivity.
  - destruct (cs_op blobs zstd chunk st op) as [st1 m]. destruct (cs_ops blobs zstd chunk st1 ops) as [st2 ms'] eqn:E.
    inversion H. subst. cbn [cs_res_all]. rewrite (IH _ _ _ E), andb_true_r.
    unfold cs_res_eqb. destruct (sx_Z (sx_nth op 0) =? 2); [|apply sx_eqb_refl].
    rewrite sx_eqb_refl, sx_seteq_refl. reflexivity.
Qed.

Lemma agree14_model_res inp orc : agree14 inp (run14 inp orc) (model_res inp orc) = true.
Proof.
  unfold agree14, model_res. cbv zeta.
  destruct (sx_Z (sx_nth inp 0) =? 0) eqn:E0.
  { rewrite !sx_nth_L. cbn [nth]. rewrite !Z.eqb_refl, sx_eqb_refl, orb_true_r. reflexivity. }
  destruct (sx_Z (sx_nth inp 0) =? 1) eqn:E1.
  { destruct (sx_Z (sx_nth (sx_nth inp 2) 0) =? 1) eqn:Ez; [|apply sx_eqb_refl].
    destruct (dec_sendfail (sx_nth inp 7)) as [[j fc]|]; [|rewrite !sx_eqb_refl; reflexivity].
    destruct (sx_Z (sx_nth (run14 inp orc) 0) =? 0) eqn:Ec; cbn [negb].
    - rewrite !sx_eqb_refl. reflexivity.
    - rewrite sx_eqb_refl. cbn [andb].
      unfold run14 in *. rewrite E0, E1 in *.
      rewrite run_read_err_nodata; [reflexivity|apply Z.eqb_neq, Ec|apply Z.eqb_eq, Ez]. }
  destruct (sx_Z (sx_nth inp 0) =? 5) eqn:E5.
  { apply Z.eqb_eq in E5. unfold run14. rewrite E5. cbn [Z.eqb Pos.eqb]. unfold run_cs.
    destruct (cs_ops _ _ _ [] (sx_list (sx_nth inp 4))) as [stf ms] eqn:E.
    rewrite !sx_nth_L. cbn [nth sx_list]. rewrite (cs_ops_res_refl _ _ _ _ _ _ _ E), Nat.eqb_refl, sx_seteq_refl.
    reflexivity. }
  destruct (sx_Z (sx_nth inp 0) =? 4); [rewrite sx_eqb_refl, sx_seteq_refl; reflexivity|apply sx_eqb_refl].
Qed.

Theorem mon14_silent_on_model : forall inp orc,
  inp_wf inp -> mon14 inp (L [orc; model_res inp orc]) = [].
Proof.
  intros inp orc Hwf. apply mon14_silent_on_agreeing; [exact Hwf|].
  rewrite !sx_nth_L. cbn [nth]. apply agree14_model_res.
Qed.

(** * Every hypothesis is needed: the monitor fires on the model without it *)

(** identity read with chunk size 0: the model sends one empty message. *)
Example read_chunk_needed :
  let inp := L [A 1; L [L [A 7]]; L [A 0; A 0; A 1]; A 0; A 0; A 0; A 0; L []] in
  mon14 inp (L [L []; model_res inp (L [])]) = [6].
Proof. vm_compute. reflexivity. Qed.

(** identity read whose Send fails "with code 0" before the first message. *)
Example read_sendfail_code_needed :
  let inp := L [A 1; L [L [A 7]]; L [A 0; A 0; A 1]; A 0; A 0; A 0; A 1; L [A 0; A 0]] in
  mon14 inp (L [L []; model_res inp (L [])]) = [6].
Proof. vm_compute. reflexivity. Qed.

(** client <-> server with chunk size 0: the upload carries no data. *)
Example cs_chunk_needed :
  let inp := L [A 5; L [L [A 7]]; A 0; A 0; L [L [A 0; A 0; A 1]]] in
  mon14 inp (L [L []; model_res inp (L [])]) = [11].
Proof. vm_compute. reflexivity. Qed.

Lemma cs_first_op_fires inp orc op ops :
  sx_Z (sx_nth inp 0) = 5 -> sx_list (sx_nth inp 4) = op :: ops ->
  (forall ops' rs,
     fst (mon_cs_ops (dec_blobs (sx_nth inp 1)) [] (op :: ops')
            (snd (cs_op (dec_blobs (sx_nth inp 1)) (negb (sx_Z (sx_nth inp 2) =? 0)) (sx_nat (sx_nth inp 3)) [] op)
             :: rs)) = false) ->
  mon14 inp (L [orc; model_res inp orc]) = [11].
Proof.
  intros Hk Hops Hrej.
  unfold mon14. cbv zeta. rewrite Hk. cbn [Z.eqb Pos.eqb]. rewrite sx_nth_L. cbn [nth].
  unfold model_res, run14. rewrite Hk. cbn [Z.eqb Pos.eqb].
  unfold mon_cs, run_cs. rewrite Hops. cbn [cs_ops].
  destruct (cs_op _ _ _ [] op) as [st1 m]. destruct (cs_ops _ _ _ st1 ops) as [st rs].
  rewrite !sx_nth_L. cbn [nth sx_list]. specialize (Hrej ops rs). cbn [snd] in Hrej.
  destruct (mon_cs_ops _ [] (op :: ops) (m :: rs)) as [ok stf]. cbn [fst] in Hrej. subst ok. reflexivity.
Qed.

Lemma cs_get_oversized_fires inp orc op ops :
  sx_Z (sx_nth inp 0) = 5 -> sx_list (sx_nth inp 4) = op :: ops -> sx_Z (sx_nth op 0) = 1 ->
  backend_max < sx_Z (sx_nth op 2) ->
  mon14 inp (L [orc; model_res inp orc]) = [11].
Proof.
  intros Hk Hops Hop Hbig. apply (cs_first_op_fires inp orc op ops Hk Hops). intros ops' rs.
  cbn [mon_cs_ops]. unfold cs_op. rewrite Hop. cbn [Z.eqb Pos.eqb].
  (* ToByteSlice refuses the size before anything is read: INVALID_ARGUMENT where clause 11 wants NOT_FOUND *)
  unfold client_get, to_byte_slice. apply Z.ltb_lt in Hbig. cbn [dec_dig d_size]. rewrite Hbig. reflexivity.
Qed.

Lemma cs_fm_negative_fires inp orc op ops e es :
  sx_Z (sx_nth inp 0) = 5 -> sx_list (sx_nth inp 4) = op :: ops ->
  sx_Z (sx_nth op 0) <> 0 -> sx_Z (sx_nth op 0) <> 1 ->
  sx_list (sx_nth op 1) = e :: es -> sx_Z (sx_nth e 1) < 0 ->
  mon14 inp (L [orc; model_res inp orc]) = [11].
Proof.
  intros Hk Hops H0 H1 He Hneg. apply (cs_first_op_fires inp orc op ops Hk Hops). intros ops' rs.
  apply Z.eqb_neq in H0, H1. apply Z.ltb_lt in Hneg.
  cbn [mon_cs_ops]. unfold cs_op. rewrite H0, H1, He. cbn [map find_missing existsb dec_dig d_size].
  rewrite Hneg. reflexivity.
Qed.

(** client <-> server Get of an absent digest larger than the ToByteSlice limit:
    INVALID_ARGUMENT instead of NOT_FOUND (an input harness/c14.go accepts). *)
Example cs_get_size_needed :
  let inp := L [A 5; L [L [A 7]]; A 0; A 1; L [L [A 1; A 0; A 1048577]]] in
  mon14 inp (L [L []; model_res inp (L [])]) = [11].
Proof. intro inp. apply (cs_get_oversized_fires inp (L []) (L [A 1; A 0; A 1048577]) []); reflexivity. Qed.

(** client <-> server FindMissing with a negative size: INVALID_ARGUMENT. *)
Example cs_fm_size_needed :
  let inp := L [A 5; L [L [A 7]]; A 0; A 1; L [L [A 2; L [L [A 0; A (-1)]]]]] in
  mon14 inp (L [L []; model_res inp (L [])]) = [11].
Proof.
  intro inp. apply (cs_fm_negative_fires inp (L []) (L [A 2; L [L [A 0; A (-1)]]]) [] (L [A 0; A (-1)]) []);
    (reflexivity || discriminate).
Qed.

Lemma cs_put_oversized_fires inp orc op ops :
  sx_Z (sx_nth inp 0) = 5 -> sx_list (sx_nth inp 4) = op :: ops -> sx_Z (sx_nth op 0) = 0 ->
  let x := blob (dec_blobs (sx_nth inp 1)) (sx_Z (sx_nth op 1)) in
  sx_Z (sx_nth op 2) = blen x -> backend_max < blen x ->
  mon14 inp (L [orc; model_res inp orc]) = [11].
Proof.
  intros Hk Hops Hop x Hsz Hbig. apply (cs_first_op_fires inp orc op ops Hk Hops). intros ops' rs.
  cbn [mon_cs_ops]. unfold cs_op. rewrite Hop. cbn [Z.eqb].
  set (blobs := dec_blobs (sx_nth inp 1)) in *.
  set (d := dec_dig blobs (sx_nth op 1) (sx_nth op 2)).
  assert (Hv : valid (hash_of blobs) d x = true).
  { unfold valid, d, dec_dig. cbn [d_size d_hash]. fold x. rewrite Hsz, !Z.eqb_refl. reflexivity. }
  fold x.
  destruct (client_put_oversized (hash_of blobs) fdecompress fcompress
              (negb (sx_Z (sx_nth inp 2) =? 0)) (sx_nat (sx_nth inp 3)) [] d x Hv) as [Hc _].
  { unfold d, dec_dig. cbn [d_size]. rewrite Hsz. exact Hbig. }
  cbn [snd]. rewrite Hv, sx_nth_L. cbn [nth sx_Z].
  apply Z.eqb_neq in Hc. rewrite Hc. reflexivity.
Qed.

(** client <-> server Put of a (valid) blob of 1 MiB + 1 bytes. *)
Example cs_put_size_needed :
  let inp := L [A 5; L [L (map A (repeat 0 (Z.to_nat 1048577)))]; A 0; A 1048577; L [L [A 0; A 0; A 1048577]]] in
  mon14 inp (L [L []; model_res inp (L [])]) = [11].
Proof.
  intro inp.
  assert (Hx : blen (blob (dec_blobs (sx_nth inp 1)) 0) = 1048577).
  { change (blob (dec_blobs (sx_nth inp 1)) 0) with (sx_Zs (of_Zs (repeat 0 (Z.to_nat 1048577)))).
    rewrite sx_Zs_of_Zs. unfold blen. rewrite repeat_length. apply Z2Nat.id. discriminate. }
  apply (cs_put_oversized_fires inp (L []) (L [A 0; A 0; A 1048577]) []); [reflexivity ..| |].
  - symmetry. exact Hx.
  - change (backend_max < blen (blob (dec_blobs (sx_nth inp 1)) 0)). rewrite Hx. reflexivity.
Qed.

(** Non-vacuity: a three-operation client <-> server case inside the domain. *)
Example cs_ok_example :
  let inp := L [A 5; L [L [A 7; A 8; A 9]]; A 1; A 2;
                L [L [A 0; A 0; A 3]; L [A 1; A 0; A 3]; L [A 2; L [L [A 0; A 3]; L [A 0; A 4]]]]] in
  inp_wf inp
  /\ model_res inp (L []) = L [L [L [A 0; L []]; L [A 0; L [A 7; A 8; A 9]]; L [A 0; L [L [A 0; A 4]]]];
                               L [L [A 0; A 3; L [A 7; A 8; A 9]]]].
Proof.
  split; [|vm_compute; reflexivity].
  split; [intro H; vm_compute in H; discriminate|]. intros _. split; [vm_compute; lia|].
  repeat constructor; vm_compute; try discriminate.
  all: repeat constructor; vm_compute; discriminate.
Qed.
