(** C07, "the monitor is silent on the model" — part 5: coverage bookkeeping
    on the block list (clauses 4, 5, 6).

    Every acknowledged upload [k] of the monitor is paired with a ghost record
    [gack]: the tracked object of Persist/LiveCover.v, its level (0 = written,
    1 = a started sync covers it, 2 = a completed sync covers it) and the number
    of epochs PopFront removed since.  [ack_ok] adds to [tracked] the NEGATIVE
    information clause 6 needs (below level 2 the object's epoch is not among
    the synchronized ones) and the epoch ID the monitor saw.  [ack_ok_act]:
    every block-list call preserves it.  [okw_at_issue]: the state taken by
    GetPersistentState covers exactly the level-2 objects, in the monitor's own
    terms ([covers], [covers_epoch] on the encoded content). *)
From Coq Require Import List NArith ZArith Bool Arith Lia.
From BBS Require Import Common.Sx Persist.PBL Persist.PBLProofs Persist.Syncer Persist.SyncerProofs
  Persist.LiveActs Persist.LiveCover Persist.LiveRelease Run.R07 Run.R07MonBase.
Import ListNotations.
Local Open Scope nat_scope.

Definition M32 : N := (2 ^ 32)%N.
Lemma M32_nz : M32 <> 0%N. Proof. unfold M32. discriminate. Qed.

Lemma u32_pop o ec x : ec <= x ->
  u32 (u32 (o + N.of_nat ec) + N.of_nat (x - ec)) = u32 (o + N.of_nat x).
Proof. intros H. rewrite u32_add_l. f_equal. lia. Qed.

(** the monitor's epoch-distance computation *)
Lemma ce_dist oc X : N.modulo (u32 (oc + X) + M32 - N.modulo oc M32) M32 = N.modulo X M32.
Proof.
  pose proof M32_nz as Hnz. unfold u32. fold M32.
  set (r := N.modulo oc M32). set (s := N.modulo (oc + X) M32).
  assert (Hr : (r < M32)%N) by (apply N.mod_lt; exact Hnz).
  assert (Hs : s = N.modulo (X + r) M32).
  { unfold s, r. rewrite N.add_mod_idemp_r by exact Hnz. f_equal. lia. }
  set (A := (s + M32 - r)%N).
  assert (HA : (A + r = s + M32)%N) by (unfold A; lia).
  assert (H1 : N.modulo (A + r + (M32 - r)) M32 = N.modulo A M32).
  { replace (A + r + (M32 - r))%N with (A + 1 * M32)%N by lia. apply N.mod_add. exact Hnz. }
  rewrite <- H1, HA.
  replace (s + M32 + (M32 - r))%N with (s + (M32 - r) + 1 * M32)%N by lia.
  rewrite N.mod_add by exact Hnz. rewrite Hs, N.add_mod_idemp_l by exact Hnz.
  replace (X + r + (M32 - r))%N with (X + 1 * M32)%N by lia. apply N.mod_add. exact Hnz.
Qed.

Definition enc_st (st : pstate) : sx := L [of_N (fst st); L (map enc_bstate (snd st))].
Definition st_nseeds (st : pstate) : nat := length (concat (map bs_seeds (snd st))).

Lemma content_nseeds_enc st : content_nseeds (enc_st st) = st_nseeds st.
Proof.
  unfold content_nseeds, enc_st, st_nseeds.
  change (sx_list (sx_nth (L [of_N (fst st); L (map enc_bstate (snd st))]) 1)) with (map enc_bstate (snd st)).
  induction (snd st) as [|b r IH]; [reflexivity|].
  cbn [map fold_right concat]. rewrite app_length, IH. f_equal.
  unfold enc_bstate, of_Ns. cbn. apply map_length.
Qed.

Lemma covers_epoch_enc st e :
  covers_epoch (enc_st st) e =
  (N.modulo (e + M32 - N.modulo (fst st) M32) M32 <? N.of_nat (st_nseeds st))%N.
Proof.
  unfold covers_epoch. rewrite content_nseeds_enc.
  change (sx_N (sx_nth (enc_st st) 0)) with (sx_N (of_N (fst st))). rewrite sx_N_of_N. reflexivity.
Qed.

Lemma covers_off_enc st lo en :
  covers_off (enc_st st) lo en = existsb (fun b => Z.eqb (fst (bs_loc b)) lo && (en <=? bs_off b)%Z) (snd st).
Proof.
  unfold covers_off, enc_st.
  change (sx_list (sx_nth (L [of_N (fst st); L (map enc_bstate (snd st))]) 1)) with (map enc_bstate (snd st)).
  induction (snd st) as [|b r IH]; [reflexivity|]. cbn [map existsb]. rewrite IH. reflexivity.
Qed.

Record gack := mkG { g_o : obj; g_lv : nat; g_d : nat }.

Definition ntracked (o : obj) (lv d : nat) (p : pbl) : Prop :=
  (lv < 1 -> synchronizingEpochs p <= o_epoch o - d) /\ (lv < 2 -> synchronizedEpochs p <= o_epoch o - d).

Definition ack_ok (p : pbl) (k : ack) (g : gack) : Prop :=
  o_end (g_o g) = k_end k /\ fst (o_loc (g_o g)) = k_loc k /\ g_lv g <= 2 /\
  tracked (g_o g) (g_lv g) (g_d g) p /\
  (totalReleased p <= o_block (g_o g) ->
     ntracked (g_o g) (g_lv g) (g_d g) p /\
     k_epoch k = u32 (oldestEpochID p + N.of_nat (o_epoch (g_o g) - g_d g))).

Definition g_next (a : act) (p : pbl) (g : gack) : gack :=
  mkG (g_o g) (lv_next (g_lv g) a) (g_d g + popc a p).

Lemma lv_next_le lv a : lv <= 2 -> lv_next lv a <= 2.
Proof. intros H. destruct a as [| | | | |[]| |]; unfold lv_next; try lia; destruct lv; lia. Qed.

(** what a call does to the fields the negative part mentions *)
Definition sfields (p : pbl) := (synchronizingEpochs p, synchronizedEpochs p, oldestEpochID p, totalReleased p).

Lemma push_sfields al p : sfields (fst (push_back al p)) = sfields p.
Proof. unfold push_back. destruct (closedForWriting p); [reflexivity|]. destruct al; reflexivity. Qed.

Lemma fin_sfields tok blk size seed p p' fr : put_finalize tok blk size seed p = Ok (p', fr) -> sfields p' = sfields p.
Proof.
  intros Hf. destruct (fin_cases _ _ _ _ _ _ _ Hf) as [[-> _]|
    (abs & off & bumped & _ & _ & _ & _ & _ & _ & _ & _ & _ & _ & Ft & Fsy & Fsd & _ & _ & _ & _ & Fo)]; [reflexivity|].
  unfold sfields. rewrite Ft, Fsy, Fsd, Fo. reflexivity.
Qed.

Lemma act_sfields a p p' : apply_act a p = Ok p' ->
  match a with APop | ASyncStart | ASyncDone _ => True | _ => sfields p' = sfields p end.
Proof.
  destruct a as [|al| |tok blk size seed| |b|t|t]; cbn [apply_act]; intros Ha; auto.
  - inversion Ha; reflexivity.
  - inversion Ha; subst. apply push_sfields.
  - destruct (put_finalize _ _ _ _ _) as [[p1 fr]|] eqn:Ef; [|discriminate]. cbn in Ha. inversion Ha; subst.
    eapply fin_sfields; eauto.
  - destruct (get_persistent_state p) as [[p1 st]|] eqn:Eg; [|discriminate]. cbn in Ha. inversion Ha; subst.
    destruct (gps_fields _ _ _ Eg) as [Hc [_ [_ [_ [_ [Ho _]]]]]]. unfold core in Hc. inversion Hc. unfold sfields. congruence.
  - destruct (nsw_fields _ _ Ha) as [Hc [_ [_ [_ [_ Ho]]]]]. unfold core in Hc. inversion Hc. unfold sfields. congruence.
Qed.

Lemma ack_ok_act a p p' k g : pbl_inv p -> inv_last p -> ack_ok p k g -> apply_act a p = Ok p' ->
  ack_ok p' k (g_next a p g).
Proof.
  intros I L [A1 [A2 [A3 [T N]]]] Ha. unfold ack_ok, g_next. cbn [g_o g_lv g_d].
  split; [exact A1|]. split; [exact A2|]. split; [apply lv_next_le; exact A3|].
  split; [eapply tracked_act; eauto|].
  intros Hge.
  assert (Hsame : sfields p' = sfields p -> lv_next (g_lv g) a = g_lv g -> popc a p = 0 ->
                  ntracked (g_o g) (lv_next (g_lv g) a) (g_d g + popc a p) p' /\
                  k_epoch k = u32 (oldestEpochID p' + N.of_nat (o_epoch (g_o g) - (g_d g + popc a p)))).
  { intros Hs Hl Hp. unfold sfields in Hs. inversion Hs as [[H1 H2 H3 H4]]. rewrite Hl, Hp, Nat.add_0_r.
    rewrite H4 in Hge. destruct (N Hge) as [[N1 N2] N3]. unfold ntracked. rewrite H1, H2, H3. auto. }
  pose proof (act_sfields _ _ _ Ha) as Hsf.
  destruct a as [|al| |tok blk size seed| |b|t|t]; try (apply Hsame; [exact Hsf|reflexivity|reflexivity]);
    cbn [apply_act] in Ha.
  - (* PopFront *)
    destruct (blocks p) as [|fb rest] eqn:Eb; [unfold pop_front in Ha; rewrite Eb in Ha; discriminate|].
    destruct (pop_fields _ _ _ _ Eb Ha) as [Fb [Fs [Fl [Ft [Fsy [Fsd [_ [_ [_ [_ Fo]]]]]]]]]].
    cbn [popc lv_next]. rewrite Eb. rewrite Ft in Hge.
    destruct T as [T|[T1 [T2 [bb [la [TA [TB [TC [TD [TE [TF _]]]]]]]]]]]; [lia|].
    destruct (N T1) as [[N1 N2] N3].
    pose proof (first_block_epochs _ _ _ _ _ L Eb TE ltac:(lia)) as Hec.
    unfold ntracked. rewrite Fsy, Fsd, Fo.
    rewrite Nat.sub_add_distr.
    split; [split; intros Hl; [specialize (N1 Hl)|specialize (N2 Hl)]; lia|].
    rewrite u32_pop by exact Hec. exact N3.
  - (* NotifySyncStarting(false) *)
    inversion Ha; subst. cbn [popc lv_next]. rewrite Nat.add_0_r. cbn [totalReleased notify_sync_starting] in Hge.
    destruct (N Hge) as [[N1 N2] N3]. unfold ntracked. cbn [synchronizingEpochs synchronizedEpochs oldestEpochID notify_sync_starting].
    split; [split; intros Hl; [lia|apply N2; lia]|exact N3].
  - (* NotifySyncCompleted (+ NotifySyncStarting(true)) *)
    inversion Ha; subst. cbn [popc]. rewrite Nat.add_0_r.
    destruct (nsc_fields p) as [_ [Fs [_ [Ft [Fsy [Fsd [_ [_ [_ [_ Fo]]]]]]]]]].
    assert (Hge' : totalReleased p <= o_block (g_o g)).
    { destruct b; cbn [totalReleased notify_sync_starting] in Hge; rewrite Ft in Hge; exact Hge. }
    destruct (N Hge') as [[N1 N2] N3].
    destruct b; unfold ntracked; cbn [synchronizingEpochs synchronizedEpochs oldestEpochID notify_sync_starting lv_next];
      rewrite ?Fsy, ?Fsd, ?Fo; (split; [|exact N3]); destruct (g_lv g) as [|[|lv]]; split; intros Hl; try lia;
      try (specialize (N1 ltac:(lia)); lia).
Qed.

Lemma ack_ok_new abs blk size seed p p' off e bfl sd k :
  pbl_inv p -> put_finalize (PutAt abs) blk size seed p = Ok (p', FinOk off) ->
  index_to_ref (abs - totalReleased p') p' = Ok ((e, bfl), sd) ->
  k_end k = (off + size)%Z -> k_epoch k = e ->
  k_loc k = fst (nth (abs - totalReleased p) (map b_loc (blocks p)) (0, 0)%Z) ->
  ack_ok p' k (mkG (obj_of p p' abs (off + size)) 0 0) /\ totalReleased p' <= abs.
Proof.
  intros I Hf Hr Hend Hep Hloc.
  pose proof (fin_tracked _ _ _ _ _ _ _ I Hf) as T.
  destruct (put_finalize_inv (PutAt abs) blk size seed p I) as [p2 [fr2 [Hf2 [I' _]]]].
  { cbn. destruct (fin_cases _ _ _ _ _ _ _ Hf) as [[_ Hn]|(abs0 & off0 & bumped & Ht & _ & _ & _ & Hge & Hlt & _)];
      [exfalso; eapply Hn; reflexivity|]. inversion Ht; subst. lia. }
  rewrite Hf in Hf2. inversion Hf2; subst p2 fr2. clear Hf2.
  destruct (fin_cases _ _ _ _ _ _ _ Hf) as [[_ Hn]|
    (abs0 & off0 & bumped & Ht & _ & Hfr & _ & Hge & Hlt & Fb & Fs & Fl & Hnb & Ft & Fsy & Fsd & _ & _ & _ & _ & Fo)];
    [exfalso; eapply Hn; reflexivity|].
  inversion Ht; subst abs0. clear Ht.
  split; [|lia].
  unfold ack_ok. cbn [g_o g_lv g_d]. unfold obj_of at 1 2. cbn [o_end o_loc].
  split; [symmetry; exact Hend|]. split; [symmetry; exact Hloc|]. split; [lia|]. split; [exact T|].
  intros _. rewrite Nat.sub_0_r. unfold obj_of. cbn [o_epoch].
  assert (Hlen : 0 < length (epochSeeds p')).
  { unfold index_to_ref in Hr. destruct (length (epochSeeds p')); [discriminate|lia]. }
  split.
  - unfold ntracked. cbn [o_epoch]. rewrite ?Nat.sub_0_r.
    rewrite Fsy, Fsd. pose proof (i_sync1 _ I). pose proof (i_sync2 _ I). pose proof (i_len _ I).
    rewrite Fs. destruct bumped.
    + rewrite app_length. cbn. split; intros; lia.
    + destruct (Hnb eq_refl) as [Hne _]. split; intros; lia.
  - cbn [o_epoch]. rewrite ?Nat.sub_0_r.
    rewrite Hep. unfold index_to_ref in Hr. destruct (length (epochSeeds p')) as [|n] eqn:El; [discriminate|].
    destruct (nth_error (epochLast p') n); [|discriminate]. destruct (nth_error (epochSeeds p') n); [|discriminate].
    inversion Hr; subst. replace (S n - 1) with n by lia. reflexivity.
Qed.

(** GetPersistentState: the state taken covers the level-2 objects and
    no epoch of an object below level 2 *)
Lemma gps_nseeds p p' st : pbl_inv p -> get_persistent_state p = Ok (p', st) -> st_nseeds st = synchronizedEpochs p.
Proof.
  intros I Hg. destruct (gps_fields _ _ _ Hg) as [_ [_ [_ [_ [_ [_ [_ Hloop]]]]]]].
  unfold st_nseeds. rewrite (gps_seeds _ _ _ _ _ Hloop) by (pose proof (i_sum _ I); pose proof (i_sync1 _ I); pose proof (i_sync2 _ I); lia).
  rewrite Nat.sub_0_r. cbn [skipn]. rewrite firstn_length. pose proof (i_sync1 _ I). pose proof (i_sync2 _ I). lia.
Qed.

(** one acknowledged upload against one state write, as [check_write] sees it *)
Definition okw (w : pendw) (k : ack) : Prop :=
  zmem (k_loc k) (pw_popped w) = true \/
  let should := match pw_cover_before w with Some j => (k_step k <? j)%nat | None => false end in
  (should = true -> covers (pw_content w) k = true) /\
  (should = false -> covers_epoch (pw_content w) (k_epoch k) = false).

Lemma check_write_nil w acks : Forall (okw w) acks -> check_write w acks = [].
Proof.
  intros F. unfold check_write. induction F as [|k r Hk F IH]; [reflexivity|].
  cbn [flat_map]. rewrite IH, app_nil_r. destruct Hk as [Hk|[H1 H2]]; [rewrite Hk; reflexivity|].
  destruct (zmem _ _); [reflexivity|].
  destruct (match pw_cover_before w with Some j => (k_step k <? j)%nat | None => false end) eqn:Es.
  - rewrite (H1 eq_refl). reflexivity.
  - rewrite (H2 eq_refl). reflexivity.
Qed.

Lemma okw_at_issue p p' st k g popped j :
  pbl_inv p -> inv_last p -> get_persistent_state p = Ok (p', st) ->
  ack_ok p k g -> length (epochSeeds p) < N.to_nat M32 ->
  (o_block (g_o g) < totalReleased p -> zmem (k_loc k) popped = true) ->
  (g_lv g = 2 <-> match j with Some j0 => (k_step k <? j0)%nat | None => false end = true) ->
  okw (mkPendw (enc_st st) j popped) k.
Proof.
  intros I L Hg [A1 [A2 [A3 [T N]]]] Hb Hpop Hlv. unfold okw. cbn [pw_popped pw_cover_before pw_content].
  destruct (Nat.lt_ge_cases (o_block (g_o g)) (totalReleased p)) as [Hrel|Hge]; [left; auto|right].
  destruct (N Hge) as [[N1 N2] N3].
  destruct (gps_fields _ _ _ Hg) as [_ [_ [_ [_ [_ [_ [Hfst _]]]]]]].
  pose proof (gps_nseeds _ _ _ I Hg) as Hns.
  assert (Tidx : g_d g <= o_epoch (g_o g) /\ o_epoch (g_o g) - g_d g < length (epochSeeds p)).
  { destruct T as [T|[_ [T2 [bb [la [_ [_ [_ [TD _]]]]]]]]]; [lia|]. split; [exact T2|]. apply nth_error_Some. congruence. }
  assert (Hce : covers_epoch (enc_st st) (k_epoch k) = (o_epoch (g_o g) - g_d g <? st_nseeds st)).
  { rewrite covers_epoch_enc, N3, Hfst.
    pose proof (ce_dist (oldestEpochID p) (N.of_nat (o_epoch (g_o g) - g_d g))) as Hd. rewrite Hd.
    rewrite N.mod_small by lia.
    destruct (Nat.ltb_spec (o_epoch (g_o g) - g_d g) (st_nseeds st)); [apply N.ltb_lt|apply N.ltb_ge]; lia. }
  split; intros Hs.
  - apply Hlv in Hs. rewrite Hs in T.
    destruct (gps_covers _ _ _ _ _ I L T Hg) as [Hr|[[bs [Hn [Hl Ho]]] He]]; [lia|].
    unfold covers. rewrite Hce.
    assert (o_epoch (g_o g) - g_d g < st_nseeds st) as Hlt.
    { unfold st_nseeds. apply nth_error_Some. congruence. }
    apply Nat.ltb_lt in Hlt. rewrite Hlt. cbn [andb]. rewrite covers_off_enc.
    apply existsb_exists. exists bs. split; [eapply nth_error_In; eauto|].
    rewrite Hl, A2, Z.eqb_refl. cbn [andb]. apply Z.leb_le. rewrite <- A1. exact Ho.
  - rewrite Hce, Hns. apply Nat.ltb_ge. apply N2.
    destruct (Nat.eq_dec (g_lv g) 2) as [E|E]; [|lia]. apply Hlv in E. congruence.
Qed.

(** an upload acknowledged while a write is in flight is not covered by it:
    [E] = epochs removed by PopFront since the state was taken *)
Lemma okw_later (st : pstate) (E : nat) p k g popped j :
  ack_ok p k g -> totalReleased p <= o_block (g_o g) -> g_lv g = 0 ->
  u32 (oldestEpochID p) = u32 (fst st + N.of_nat E) ->
  st_nseeds st <= synchronizedEpochs p + E ->
  E + length (epochSeeds p) < N.to_nat M32 ->
  match j with Some j0 => (k_step k <? j0)%nat | None => false end = false ->
  okw (mkPendw (enc_st st) j popped) k.
Proof.
  intros [A1 [A2 [A3 [T N]]]] Hge Hlv Ho Hn Hb Hs. right. cbn [pw_popped pw_cover_before pw_content].
  rewrite Hs. split; [discriminate|]. intros _.
  destruct (N Hge) as [[N1 N2] N3].
  assert (Tidx : o_epoch (g_o g) - g_d g < length (epochSeeds p)).
  { destruct T as [T|[_ [T2 [bb [la [_ [_ [_ [TD _]]]]]]]]]; [lia|]. apply nth_error_Some. congruence. }
  rewrite covers_epoch_enc, N3.
  replace (u32 (oldestEpochID p + N.of_nat (o_epoch (g_o g) - g_d g)))
    with (u32 (fst st + N.of_nat (E + (o_epoch (g_o g) - g_d g)))).
  2:{ rewrite <- (u32_add_l (oldestEpochID p)), Ho, u32_add_l. f_equal. lia. }
  rewrite ce_dist. rewrite N.mod_small by lia. apply N.ltb_ge.
  specialize (N2 ltac:(lia)). lia.
Qed.
