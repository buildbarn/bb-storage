(** C17 / C17L: the event log of a model trace (Compose/EventLog.v) against the
    log the harness recorded from the REAL decorators.  Each example replays a
    schedule on the unchanged code (`bin/check C17 --replay`, `bin/check C17L
    --replay`; inputs in the comments), takes the trace of the model that
    follows the same schedule (internal steps in the order in which the
    goroutines reach them) and checks by computation that [tlog] / [xlog] is,
    event for event, the recorded log - and that the monitor is silent on it.
    These are the non-vacuity instances of the theorems of Run/R17LogMon.v:
    the logs contain success events of leaders, waiters, queued and cached
    callers, and of a ReplicateSingle caller (the ReplicateComposite caller of
    [entry_log_is_the_recorded_log] returns INTERNAL). *)
From Coq Require Import List ZArith NArith Bool Arith.
From BBS Require Import Common.Sx Common.ListX Compose.ExistenceCache Compose.Replicators Compose.ReplEntry
  Compose.EventLog Run.R17Conc Run.R17 Run.R17L Run.R17Proofs Run.R17LogBase Run.R17LogOrder.
Import ListNotations.
Open Scope Z_scope.

(** (2 (0) ((0) (0)) (0) () ((0 0) (0 1) (1 0 0) (1 0 0) (1 0 0))):
    deduplicating replicator, two callers for object 0; caller 1 waits for
    caller 0's copy and is told OK on the strength of caller 0's Put. *)
Example dedup_log_is_the_recorded_log :
  let tr := [EStart 0; ETau 0 false; EStart 1; ETau 1 false; ERel 0 0; ERel 0 0; ERel 0 0;
             ETau 0 false; ETau 0 false; ETau 1 false] in
  let lg := tlog MDedup (init_state [[0%nat]; [0%nat]] [0%nat] []) tr in
  lg = [L [A 0; A 0; A 0];
        L [A 1; A 0; A 0; A 2; L [A 0]; A 0];
        L [A 0; A 1; A 0];
        L [A 2; A 0; A 0; A 2; L [A 0]; A 0; L [A 0]; A 0];
        L [A 1; A 0; A 1; A 0; L [A 0]; A 0];
        L [A 2; A 0; A 1; A 0; L [A 0]; A 0; L []; A 0];
        L [A 1; A 0; A 0; A 1; L [A 0]; A 0];
        L [A 2; A 0; A 0; A 1; L [A 0]; A 0; L []; A 0];
        L [A 3; A 0; A 0; A 0];
        L [A 3; A 1; A 0; A 0]]
  /\ mon17 (L [A 2; L [A 0]; L [L [A 0]; L [A 0]]; L [A 0]; L []; L []]) (L [L []; A 1; A 1; L [A 0]; L lg]) = [].
Proof. vm_compute. split; reflexivity. Qed.

(** The case the "acts again only after the start" condition of clause 24 is
    about, which the harness (callers start at quiescent points only) cannot
    schedule but the model can: caller 0 sees the sink report object 0 present
    (position 2); caller 1 starts AFTER that (position 3), still finds caller
    0's in-flight entry, waits, and is told OK.  Caller 0's next event
    (position 4) comes after caller 1's start: the monitor is silent. *)
Example dedup_justified_before_the_waiter_started :
  let tr := [EStart 0; ETau 0 false; ERel 0 0; EStart 1; ETau 1 false; ETau 0 false; ETau 0 false; ETau 1 false] in
  let lg := tlog MDedup (init_state [[0%nat]; [0%nat]] [] [0%nat]) tr in
  map lg_kind lg = [0; 1; 2; 0; 3; 3]
  /\ map lg_caller lg = [0; 0; 0; 1; 0; 1]%nat
  /\ mon17 (L [A 2; L [A 0]; L [L [A 0]; L [A 0]]; L []; L [A 0]; L []]) (L [L []; A 0; A 0; L [A 0]; L lg]) = [].
Proof. vm_compute. repeat split; reflexivity. Qed.

(** (2 (0) ((0 1) (1)) (0 1) (0) ((0 0) (1 0 0) (0 1) (1 0 0) (1 0 14) ...)):
    two keys, FindMissing answers "present" and "missing", a failing Get. *)
Example dedup_two_keys_log_is_the_recorded_log :
  let tr := [EStart 0; ETau 0 false; ERel 0 0; ETau 0 false; ETau 0 false; ETau 0 false; EStart 1; ETau 1 false;
             ERel 0 0; ERel 0 14] in
  tlog MDedup (init_state [[0%nat; 1%nat]; [1%nat]] [0%nat; 1%nat] [0%nat]) tr =
       [L [A 0; A 0; A 0];
        L [A 1; A 0; A 0; A 2; L [A 0]; A 0];
        L [A 2; A 0; A 0; A 2; L [A 0]; A 0; L []; A 0];
        L [A 1; A 0; A 0; A 2; L [A 1]; A 0];
        L [A 0; A 1; A 0];
        L [A 2; A 0; A 0; A 2; L [A 1]; A 0; L [A 1]; A 0];
        L [A 1; A 0; A 1; A 0; L [A 1]; A 0];
        L [A 2; A 0; A 1; A 0; L [A 1]; A 14; L []; A 0];
        L [A 1; A 0; A 0; A 1; L [A 1]; A 0]].
Proof. vm_compute. reflexivity. Qed.

(** (2 (1 1) ((0 1) (1)) (0 1) () ((0 0) (0 1) (1 0 0) (1 0 0) (1 0 0) (1 0 0) (1 1 0) (1 1 0))):
    limit 1; caller 1 queues on the semaphore until caller 0 has copied both objects. *)
Example limit_log_is_the_recorded_log :
  let tr := [EStart 0; ETau 0 false; EStart 1; ETau 1 false; ERel 0 0; ERel 0 0; ERel 0 0; ERel 0 0;
             ETau 1 false; ERel 1 0; ERel 1 0] in
  let lg := tlog (MLimit 1) (init_state [[0%nat; 1%nat]; [1%nat]] [0%nat; 1%nat] []) tr in
  lg = [L [A 0; A 0; A 0];
        L [A 1; A 0; A 1; A 0; L [A 0]; A 0];
        L [A 0; A 1; A 0];
        L [A 2; A 0; A 1; A 0; L [A 0]; A 0; L []; A 0];
        L [A 1; A 0; A 0; A 1; L [A 0]; A 0];
        L [A 2; A 0; A 0; A 1; L [A 0]; A 0; L []; A 0];
        L [A 1; A 0; A 1; A 0; L [A 1]; A 0];
        L [A 2; A 0; A 1; A 0; L [A 1]; A 0; L []; A 0];
        L [A 1; A 0; A 0; A 1; L [A 1]; A 0];
        L [A 2; A 0; A 0; A 1; L [A 1]; A 0; L []; A 0];
        L [A 3; A 0; A 0; A 0];
        L [A 1; A 1; A 1; A 0; L [A 1]; A 0];
        L [A 2; A 1; A 1; A 0; L [A 1]; A 0; L []; A 0];
        L [A 1; A 1; A 0; A 1; L [A 1]; A 0];
        L [A 2; A 1; A 0; A 1; L [A 1]; A 0; L []; A 0];
        L [A 3; A 1; A 0; A 0]]
  /\ mon17 (L [A 2; L [A 1; A 1]; L [L [A 0; A 1]; L [A 1]]; L [A 0; A 1]; L []; L []]) (L [L []; A 1; A 1; L [A 0; A 1]; L lg]) = [].
Proof. vm_compute. split; reflexivity. Qed.

(** (2 (2 4 5) ((0) (0)) (0) () ((0 0) (1 0 0) (1 0 0) (3 3) (0 1))): queued,
    duration 5; caller 1 starts at clock 3 and is answered from the existence cache. *)
Example queued_log_is_the_recorded_log :
  let tr := [EStart 0; ETau 0 false; ETau 0 false; ERel 0 0; ERel 0 0; EAdv 3; EStart 1; ETau 1 false] in
  let lg := tlog (MQueued 4 5) (init_state [[0%nat]; [0%nat]] [0%nat] []) tr in
  lg = [L [A 0; A 0; A 0];
        L [A 1; A 0; A 1; A 0; L [A 0]; A 0];
        L [A 2; A 0; A 1; A 0; L [A 0]; A 0; L []; A 0];
        L [A 1; A 0; A 0; A 1; L [A 0]; A 0];
        L [A 2; A 0; A 0; A 1; L [A 0]; A 0; L []; A 0];
        L [A 3; A 0; A 0; A 0];
        L [A 0; A 1; A 3];
        L [A 3; A 1; A 0; A 3]]
  /\ mon17 (L [A 2; L [A 2; A 4; A 5]; L [L [A 0]; L [A 0]]; L [A 0]; L []; L []]) (L [L []; A 1; A 1; L [A 0]; L lg]) = [].
Proof. vm_compute. split; reflexivity. Qed.

(** C17L: (2 (1 1) ((0) (0)) (0) () (... ) (1 2)): limit 1, caller 0 uses
    ReplicateSingle, caller 1 ReplicateComposite; caller 1's read-back fails
    with NOT_FOUND (5), reported as INTERNAL (13). *)
Example entry_log_is_the_recorded_log :
  let kinds := [KSingle 0; KComposite 0] in
  let tr := [EStart 0; ETau 0 false; EStart 1; ETau 1 false; ERel 0 0; ERel 0 0; ETau 1 false; ERel 0 0;
             ERel 1 0; ERel 1 0; ERel 1 5] in
  let lg := xlog kinds (MLimit 1) (xinit kinds [[0%nat]; [0%nat]] [0%nat] []) tr in
  lg = [L [A 0; A 0; A 0];
        L [A 1; A 0; A 1; A 0; L [A 0]; A 0];
        L [A 0; A 1; A 0];
        L [A 2; A 0; A 1; A 0; L [A 0]; A 0; L []; A 0];
        L [A 1; A 0; A 0; A 1; L [A 0]; A 0];
        L [A 2; A 0; A 0; A 1; L [A 0]; A 0; L []; A 0];
        L [A 1; A 0; A 0; A 0; L [A 0]; A 0];
        L [A 1; A 1; A 1; A 0; L [A 0]; A 0];
        L [A 2; A 0; A 0; A 0; L [A 0]; A 0; L []; A 0];
        L [A 3; A 0; A 0; A 0];
        L [A 2; A 1; A 1; A 0; L [A 0]; A 0; L []; A 0];
        L [A 1; A 1; A 0; A 1; L [A 0]; A 0];
        L [A 2; A 1; A 0; A 1; L [A 0]; A 0; L []; A 0];
        L [A 1; A 1; A 0; A 3; L [A 0]; A 0];
        L [A 2; A 1; A 0; A 3; L [A 0]; A 5; L []; A 0];
        L [A 3; A 1; A 13; A 0]]
  /\ mon_results kinds lg = [].
Proof. vm_compute. split; reflexivity. Qed.

(** The order in which two callers write their lines: in the dedup schedule
    above the leader's lock-protected section wakes the waiter, and the two
    goroutines then write "caller 0 returns" / "caller 1 returns" in either
    order.  The model's log has the leader first; the log with the two lines
    swapped is a [same_run] rewrite of it, and the monitor is silent on it too
    (an instance of [mon17_silent_on_accepted_any_write_order]). *)
Example dedup_waiter_writes_its_return_first :
  let tr := [EStart 0; ETau 0 false; EStart 1; ETau 1 false; ERel 0 0; ERel 0 0; ERel 0 0;
             ETau 0 false; ETau 0 false; ETau 1 false] in
  let lg := tlog MDedup (init_state [[0%nat]; [0%nat]] [0%nat] []) tr in
  let l1 := firstn 8 lg in
  let a := L [A 3; A 0; A 0; A 0] in
  let b := L [A 3; A 1; A 0; A 0] in
  lg = l1 ++ [a; b] /\ same_run lg (l1 ++ [b; a])
  /\ mon17 (L [A 2; L [A 0]; L [L [A 0]; L [A 0]]; L [A 0]; L []; L []]) (L [L []; A 1; A 1; L [A 0]; L (l1 ++ [b; a])]) = [].
Proof.
  cbv zeta.
  assert (E : tlog MDedup (init_state [[0%nat]; [0%nat]] [0%nat] [])
                [EStart 0; ETau 0 false; EStart 1; ETau 1 false; ERel 0 0; ERel 0 0; ERel 0 0; ETau 0 false; ETau 0 false; ETau 1 false]
              = firstn 8 (tlog MDedup (init_state [[0%nat]; [0%nat]] [0%nat] [])
                [EStart 0; ETau 0 false; EStart 1; ETau 1 false; ERel 0 0; ERel 0 0; ERel 0 0; ETau 0 false; ETau 0 false; ETau 1 false])
                ++ [L [A 3; A 0; A 0; A 0]; L [A 3; A 1; A 0; A 0]]) by (vm_compute; reflexivity).
  split; [exact E|]. split.
  - rewrite E at 1. apply same_run_swap; vm_compute; [discriminate|reflexivity|reflexivity].
  - vm_compute. reflexivity.
Qed.
