(** C13: the monitor of Run/R13.v (the property as a decidable check on what
    the implementation did) is silent on the model's own output, for every
    environment.

    The observation the monitor reads is [(code same calls env)]; the model
    predicts [code] and [calls] from [env] ([run13 env]).  The theorem is stated
    for every observation the judge accepts as agreeing with the model
    ([sx_eqb (run13 env) (L [code; calls]) = true]) and, as a corollary, for the
    observation assembled from the model's output.

    Hypotheses ([env_wf]), each shown necessary by a [vm_compute] witness at the
    end of this file:
      - batch size >= 1                      (else clause 5 fires on the model);
      - maxtree >= 0 or an output directory  (else clause 4 fires on the model);
      - the harness's own parse of each Tree stream ([st_fields], [st_clean])
        is consistent with the model's byte-level visit of the same bytes
        whenever that visit succeeds ([stream_consistent]; else clauses 1/3 fire).
    harness/c13.go rejects batch < 1 and maxtree < 0 ([c13Build]) and computes
    [env] itself from the real bytes, so none of the witnesses is an input the
    harness can produce. *)
From Coq Require Import List Arith ZArith Bool Lia.
Import ListNotations.
From BBS Require Import Common.Sx Common.ListX Generated.Consts Complete.WireVisit Complete.WireVisitProofs
  Complete.Completeness Complete.CompletenessProofs Run.MonSilentSx Run.R13.
Local Open Scope Z_scope.


(** ** Error codes are never 0 (the monitor reads code 0 as "returned") *)
Section NZ.
  Variable batch : nat.
  Variables maxmsg maxtree : Z.
  Variable fm : nat -> list nat -> fm_answer.
  Variable gets : list tget.
  Hypothesis fm_nz : forall k b, fm k b <> FmErr 0.
  Hypothesis gets_nz : forall i, tg_end (nth i gets get_not_found) <> Some 0
                                 /\ tg_term (nth i gets get_not_found) <> Some 0.

  Local Notation nz := (triple (fun _ => True) (fun c _ => c <> 0)).

  Lemma nz_finalize : nz (finalize fm).
  Proof.
    intros q r q' _. rewrite finalize_eq. intro H. inversion H.
    destruct (fm (q_fmcalls q) (q_pending q)) as [[|x m]|c] eqn:E; [exact I|discriminate|].
    intros ->. exact (fm_nz _ _ E).
  Qed.

  Lemma nz_tree g : tg_end g <> Some 0 /\ tg_term g <> Some 0 ->
    tree_ok maxmsg (fun _ => True) (fun c _ => c <> 0) g.
  Proof.
    intros [He Ht]. split; [|split].
    - apply Forall_forall. intros it _ _ q _. discriminate.
    - intros c q Hc. unfold prefer. destruct (tg_term g); congruence.
    - intros c q Hc _. unfold prefer. destruct (tg_term g); congruence.
  Qed.

  Lemma nz_decorator_get size ar c q :
    decorator_get batch maxmsg maxtree fm gets (AcOk size ar) = (Some c, q) -> c <> 0.
  Proof.
    apply (t_decorator_get batch maxmsg fm gets (fun _ => True) (fun c _ => c <> 0)
             nz_finalize (fun _ _ _ _ => I) (fun _ _ _ => I)); try exact I.
    - intros i id q0 r q' _ H. inversion H. exact I.
    - discriminate.
    - intro i. apply nz_tree, gets_nz.
    - discriminate.
  Qed.
End NZ.

(** ** A FindMissing answer naming a missing object ends the call with
       NOT_FOUND when no Tree reader ended in an error of its own *)
Section NF6.
  Variable batch : nat.
  Variables maxmsg maxtree : Z.
  Variable fm : nat -> list nat -> fm_answer.
  Variable gets : list tget.
  Hypothesis gets_term : forall i, tg_term (nth i gets get_not_found) = None
                                   \/ tg_term (nth i gets get_not_found) = Some code_not_found.

  Definition J (q : qstate) : Prop :=
    forall k b x m, ~ In (CFm k b (FmMissing (x :: m))) (q_log q).
  Local Notation nf6 := (triple J (fun c q => J q \/ c = code_not_found)).

  Lemma J_log c p n q : (forall k b x m, c <> CFm k b (FmMissing (x :: m))) -> J q ->
    J (mkQ p n (c :: q_log q)).
  Proof. intros Hc Jq k b x m [E|Hin]; [exact (Hc _ _ _ _ E)|exact (Jq _ _ _ _ Hin)]. Qed.

  Lemma nf6_finalize : nf6 (finalize fm).
  Proof.
    intros q r q' Jq. rewrite finalize_eq. intro H. inversion H.
    destruct (fm (q_fmcalls q) (q_pending q)) as [[|x m]|c].
    - apply J_log; [discriminate|exact Jq].
    - right. reflexivity.
    - left. apply J_log; [discriminate|exact Jq].
  Qed.

  Lemma nf6_log_get i id : nf6 (log_get i id).
  Proof. intros q r q' Jq H. inversion H. subst. apply J_log; [discriminate|exact Jq]. Qed.

  Lemma nf6_tree g : tg_term g = None \/ tg_term g = Some code_not_found ->
    tree_ok maxmsg J (fun c q => J q \/ c = code_not_found) g.
  Proof.
    intros Hg. split; [|split].
    - apply Forall_forall. intros it _ _ q Jq. left. exact Jq.
    - intros c q [Jq| ->]; [left; exact Jq|right]. destruct Hg as [->| ->]; reflexivity.
    - intros c q _ Jq. left. exact Jq.
  Qed.

  Lemma J_init : J init_q.
  Proof. intros k b x m []. Qed.

  Lemma nf6_decorator_get size ar r q k b x m :
    decorator_get batch maxmsg maxtree fm gets (AcOk size ar) = (r, q) ->
    In (CFm k b (FmMissing (x :: m))) (q_log q) -> r = Some code_not_found.
  Proof.
    intros H Hin.
    pose proof (t_decorator_get batch maxmsg fm gets J (fun c q => J q \/ c = code_not_found)
                  nf6_finalize (fun _ _ Jq _ => Jq) (fun _ _ Jq => Jq) nf6_log_get (fun q Jq => or_intror eq_refl)
                  (fun i => nf6_tree _ (gets_term i)) maxtree size ar r q J_init (or_introl J_init) H) as T.
    destruct r as [c|].
    - destruct T as [Jq| ->]; [destruct (Jq _ _ _ _ Hin)|reflexivity].
    - destruct (T _ _ _ _ Hin).
  Qed.
End NF6.


Lemma tget_empty : tget_of_stream empty_stream = get_not_found.
Proof. reflexivity. Qed.

Lemma tget_term s : tg_term (tget_of_stream s) = st_term s.
Proof.
  unfold tget_of_stream. destruct (wire_visit_all (st_bytes s) (st_term s)) as [vs r].
  destruct (items_of (st_fields s) vs) as [its e]. reflexivity.
Qed.

Lemma tget_end_none s :
  tg_end (tget_of_stream s) = None ->
  exists vs, wire_visit_all (st_bytes s) (st_term s) = (vs, WOk)
             /\ items_of (st_fields s) vs = (tg_items (tget_of_stream s), None).
Proof.
  unfold tget_of_stream. destruct (wire_visit_all (st_bytes s) (st_term s)) as [vs r] eqn:Hw.
  destruct (items_of (st_fields s) vs) as [its e] eqn:Hi. cbn [tg_end tg_items].
  destruct e as [c|]; [discriminate|]. destruct r; try discriminate.
  intros _. exists vs. split; [reflexivity|exact Hi].
Qed.

Lemma items_of_ok fs : forall vs its, items_of fs vs = (its, None) ->
  forall v, In v vs -> is_tree_field (v_num v) = true ->
  exists d, lookup_field (v_off v) fs = Some d /\ In (d, Z.of_N (v_size v)) its.
Proof.
  induction vs as [|v0 t IH]; intros its H v Hin Ht; [destruct Hin|].
  cbn [items_of] in H. destruct (is_tree_field (v_num v0)) eqn:E0.
  - destruct (lookup_field (v_off v0) fs) as [d0|] eqn:El; [|discriminate].
    destruct (items_of fs t) as [its' e'] eqn:Et. inversion H. subst.
    destruct Hin as [->|Hin].
    + exists d0. split; [exact El|left; reflexivity].
    + destruct (IH _ eq_refl v Hin Ht) as (d & Hd & Hi). exists d. split; [exact Hd|right; exact Hi].
  - destruct Hin as [->|Hin]; [congruence|]. eapply IH; eauto.
Qed.

Lemma items_of_err fs : forall vs its c, items_of fs vs = (its, Some c) -> c = code_invalid.
Proof.
  induction vs as [|v0 t IH]; intros its c H; [discriminate|].
  cbn [items_of] in H. destruct (is_tree_field (v_num v0)).
  - destruct (lookup_field (v_off v0) fs) as [d0|]; [|inversion H; reflexivity].
    destruct (items_of fs t) as [its' e'] eqn:Et. inversion H. subst. eapply IH; eauto.
  - eapply IH; eauto.
Qed.

Lemma tget_end_nz s : st_term s <> Some 0 -> tg_end (tget_of_stream s) <> Some 0.
Proof.
  intro Ht. unfold tget_of_stream.
  destruct (wire_visit_all (st_bytes s) (st_term s)) as [vs r] eqn:Hw.
  destruct (items_of (st_fields s) vs) as [its e] eqn:Hi. cbn [tg_end].
  destruct e as [c|].
  - apply items_of_err in Hi. subst. discriminate.
  - destruct r as [|c|]; try discriminate.
    apply wire_visit_err in Hw. destruct Hw as [->|Hw]; [discriminate|].
    intro E. inversion E. subst. exact (Ht Hw).
Qed.


(** Whenever the model's visit of the delivered bytes succeeds, the harness
    must have seen the stream as completely parsed, and every root/children
    field it lists must be a field the visitor hands over, found under its
    payload offset. *)
Definition stream_consistent (s : stream) : Prop :=
  forall vs, wire_visit_all (st_bytes s) (st_term s) = (vs, WOk) ->
    st_clean s = true /\
    forall o num d, In (o, num, d) (st_fields s) -> is_tree_field num = true ->
      lookup_field o (st_fields s) = d /\
      exists v, In v vs /\ v_off v = o /\ is_tree_field (v_num v) = true.

Lemma empty_stream_consistent : stream_consistent empty_stream.
Proof. intros vs H. vm_compute in H. discriminate. Qed.

Lemma consistent_nth ss j : Forall stream_consistent ss -> stream_consistent (nth j ss empty_stream).
Proof.
  intro H. destruct (nth_in_or_default j ss empty_stream) as [Hin| ->].
  - exact (proj1 (Forall_forall _ _) H _ Hin).
  - apply empty_stream_consistent.
Qed.

Lemma tree_fields_in s x :
  In x (tree_fields s) <-> exists o num, In (o, num, x) (st_fields s) /\ is_tree_field num = true.
Proof.
  unfold tree_fields. rewrite in_flat_map. split.
  - intros ([[o num] d] & Hin & Hx). destruct (is_tree_field num) eqn:E; [|destruct Hx].
    destruct Hx as [<-|[]]. exists o, num. split; [exact Hin|exact E].
  - intros (o & num & Hin & E). exists (o, num, x). split; [exact Hin|]. rewrite E. left. reflexivity.
Qed.

Lemma visit_ok_facts s :
  stream_consistent s -> tg_end (tget_of_stream s) = None ->
  st_term s = None /\ st_clean s = true /\
  forall x, In x (tree_fields s) ->
    exists d sz, x = Some d /\ In (d, sz) (tg_items (tget_of_stream s)).
Proof.
  intros Hc He. destruct (tget_end_none _ He) as (vs & Hw & Hi).
  destruct (Hc vs Hw) as [Hclean Hf]. split; [|split; [exact Hclean|]].
  - destruct (st_term s) as [c|] eqn:Et; [|reflexivity].
    exfalso. apply (wire_visit_all_read_error (st_bytes s) c). rewrite Hw. reflexivity.
  - intros x Hx. apply tree_fields_in in Hx. destruct Hx as (o & num & Hin & Hn).
    destruct (Hf _ _ _ Hin Hn) as (Hl & v & Hv & Ho & Hvn).
    destruct (items_of_ok _ _ _ Hi v Hv Hvn) as (d & Hd & Hit).
    exists d, (Z.of_N (v_size v)). split; [|exact Hit]. rewrite Ho in Hd. congruence.
Qed.

Lemma stream_intact_intro s :
  st_term s = None -> st_clean s = true ->
  (forall x, In x (tree_fields s) -> exists d, x = Some d) -> stream_intact s = true.
Proof.
  intros Ht Hc Hf. unfold stream_intact. rewrite Ht, Hc. cbn.
  apply forallb_forall. intros x Hx. destruct (Hf x Hx) as (d & ->). reflexivity.
Qed.


Lemma zip_streams_in dirs : forall ss od s,
  In (od, s) (zip_streams dirs ss) -> exists j, nth_error dirs j = Some od /\ s = nth j ss empty_stream.
Proof.
  induction dirs as [|od0 t IH]; intros ss od s H; [destruct H|].
  cbn [zip_streams] in H. destruct H as [E|H].
  - inversion E. subst. exists 0%nat. split; [reflexivity|]. destruct ss; reflexivity.
  - destruct (IH _ _ _ H) as (j & Hj & Hs). exists (S j). split; [exact Hj|].
    destruct ss as [|s0 ss']; cbn [tl] in Hs; cbn [nth]; [|exact Hs].
    destruct j; exact Hs.
Qed.

Lemma nth_gets ss j :
  nth j (map tget_of_stream ss) get_not_found = tget_of_stream (nth j ss empty_stream).
Proof. rewrite <- tget_empty. apply map_nth. Qed.

Lemma mem_true d l : mem d l = true <-> In d l.
Proof.
  unfold mem. rewrite existsb_exists. split.
  - intros (x & Hx & E). apply Nat.eqb_eq in E. subst. exact Hx.
  - intro H. exists d. split; [exact H|apply Nat.eqb_refl].
Qed.

Lemma insert_sorted_length n l : (length (insert_sorted n l) <= S (length l))%nat.
Proof.
  induction l as [|h t IH]; cbn [insert_sorted length]; [lia|].
  destruct (Nat.ltb n h); [cbn [length]; lia|]. destruct (Nat.eqb n h); cbn [length]; lia.
Qed.

Lemma dedup_sort_length l : (length (dedup_sort l) <= length l)%nat.
Proof.
  induction l as [|h t IH]; cbn [dedup_sort fold_right length]; [lia|].
  fold (dedup_sort t). pose proof (insert_sorted_length h (dedup_sort t)). lia.
Qed.

Lemma valid_ids_in d l :
  In d (valid_ids l) <-> exists w, In (Some w) l /\ wd_ok w = true /\ d = wd_id w.
Proof.
  unfold valid_ids. rewrite in_flat_map. split.
  - intros ([w|] & Hin & Hd); [|destruct Hd]. destruct (wd_ok w) eqn:E; [|destruct Hd].
    destruct Hd as [<-|[]]. exists w. auto.
  - intros (w & Hin & Hok & ->). exists (Some w). split; [exact Hin|]. rewrite Hok. left. reflexivity.
Qed.

Lemma has_malformed_true l :
  has_malformed l = true -> exists w, In (Some w) l /\ wd_ok w = false.
Proof.
  unfold has_malformed. rewrite existsb_exists. intros ([w|] & Hin & H); [|discriminate].
  exists w. split; [exact Hin|]. destruct (wd_ok w); [discriminate|reflexivity].
Qed.

Lemma ids_of_in w l : In (Some w) l -> In (wd_id w) (ids_of l).
Proof. intro H. unfold ids_of. apply in_flat_map. exists (Some w). split; [exact H|left; reflexivity]. Qed.

Lemma tree_ids_in gets dirs : forall i j od x,
  nth_error dirs j = Some od ->
  In x (flat_map (item_ids (is_some (od_root od))) (tg_items (nth (i + j) gets get_not_found))) ->
  In x (tree_ids i gets dirs).
Proof.
  induction dirs as [|od0 t IH]; intros i j od x Hj Hx; [destruct j; discriminate|].
  cbn [tree_ids]. apply in_app_iff. destruct j as [|j].
  - cbn in Hj. inversion Hj. subst. rewrite Nat.add_0_r in Hx. left. exact Hx.
  - right. eapply (IH (S i) j); [exact Hj|]. replace (S i + j)%nat with (i + S j)%nat by lia. exact Hx.
Qed.


Lemma reported_present_intro log k b m d :
  In (CFm k b (FmMissing m)) log -> In d b -> ~ In d m ->
  In d (reported_present (map enc_call (rev log))).
Proof.
  intros Hin Hb Hm. unfold reported_present. apply in_flat_map.
  exists (enc_call (CFm k b (FmMissing m))). split.
  - apply in_map, in_rev. rewrite rev_involutive. exact Hin.
  - cbn [enc_call]. rewrite !sx_nth_L. cbn [nth sx_Z]. cbn [Z.eqb andb].
    rewrite !sx_nats_of_nats. apply filter_In. split.
    + apply dedup_sort_in. exact Hb.
    + destruct (mem d (dedup_sort m)) eqn:E; [|reflexivity].
      apply (proj1 (mem_true _ _)) in E. apply (proj1 (dedup_sort_in _ _)) in E. contradiction.
Qed.

(** * The monitor, clause by clause (definitionally the text of [mon_env]) *)

Definition m_zs (ar : action_result) (ss : list stream) := zip_streams (ar_dirs ar) ss.
Definition m_ar_digs (ar : action_result) : list odig :=
  ar_files ar ++ flat_map (fun od => [od_tree od; od_root od]) (ar_dirs ar) ++ [ar_stdout ar; ar_stderr ar].
Definition m_tdigs (ar : action_result) (ss : list stream) : list odig :=
  flat_map (fun p => tree_digs (fst p) (snd p)) (filter (fun p => stream_intact (snd p)) (m_zs ar ss)).
Definition m_fmcalls (calls : list sx) := filter (fun c => Z.eqb (sx_Z (sx_nth c 0)) 0) calls.

Definition cl1 ar ss code calls : bool :=
  Z.eqb code 0 && negb (forallb (fun d => mem d (reported_present calls)) (valid_ids (m_ar_digs ar ++ m_tdigs ar ss))).
Definition cl2 ar ss code : bool :=
  Z.eqb code 0 && (has_malformed (m_ar_digs ar ++ m_tdigs ar ss)
                   || existsb (fun od => negb (is_some (od_tree od))) (ar_dirs ar)).
Definition cl3 ar ss code : bool :=
  Z.eqb code 0 && negb (forallb (fun p : outdir * stream => stream_intact (snd p)) (m_zs ar ss)).
Definition cl4 maxtree ar code : bool :=
  Z.eqb code 0 && Z.ltb maxtree
    (fold_right Z.add 0 (map (fun od => match od_tree od with Some w => if wd_ok w then wd_size w else 0 | None => 0 end) (ar_dirs ar))).
Definition cl5 (batch : nat) calls : bool :=
  existsb (fun c => Nat.ltb batch (length (sx_list (sx_nth c 1)))) (m_fmcalls calls).
Definition cl6 (ss : list stream) code calls : bool :=
  existsb (fun c => Z.eqb (sx_Z (sx_nth c 2)) 0 && negb (Nat.eqb (length (sx_list (sx_nth c 3))) 0)) (m_fmcalls calls)
  && forallb (fun s => negb (is_some (st_term s))) ss
  && negb (Z.eqb code code_not_found).

Definition clauses (batch : nat) maxtree ar ss code calls : list Z :=
  (if cl1 ar ss code calls then [1] else []) ++ (if cl2 ar ss code then [2] else []) ++
  (if cl3 ar ss code then [3] else []) ++ (if cl4 maxtree ar code then [4] else []) ++
  (if cl5 batch calls then [5] else []) ++ (if cl6 ss code calls then [6] else []).

Lemma mon_env_clauses env code calls :
  mon_env env code calls =
  clauses (sx_nat (sx_nth (sx_nth env 0) 0)) (sx_Z (sx_nth (sx_nth env 0) 2)) (dec_ar (sx_nth env 2))
          (map dec_stream (sx_list (sx_nth env 3))) code calls.
Proof. reflexivity. Qed.

Lemma fmcalls_inv log c :
  In c (m_fmcalls (map enc_call (rev log))) -> exists k b a, In (CFm k b a) log /\ c = enc_call (CFm k b a).
Proof.
  intro H. apply filter_In in H. destruct H as [H Hc]. apply in_map_iff in H. destruct H as (x & <- & Hx).
  apply in_rev in Hx. destruct x as [k b a|i id]; [eauto|]. cbn in Hc. discriminate.
Qed.

Section Silent.
  Variables (batch : nat) (maxmsg maxtree : Z) (fm : nat -> list nat -> fm_answer).
  Variables (ss : list stream) (size : Z) (ar : action_result) (r : option Z) (q : qstate).
  Hypothesis Hrun :
    decorator_get batch maxmsg maxtree fm (map tget_of_stream ss) (AcOk size ar) = (r, q).
  Hypothesis Hcons : Forall stream_consistent ss.
  Hypothesis Hfm_nz : forall k b, fm k b <> FmErr 0.
  Hypothesis Hterm_nz : forall s, In s ss -> st_term s <> Some 0.

  Local Notation gets := (map tget_of_stream ss).
  Local Notation code := (match r with None => 0 | Some c => c end).
  Local Notation calls := (map enc_call (rev (q_log q))).

  Lemma nth_term_nz j : st_term (nth j ss empty_stream) <> Some 0.
  Proof.
    destruct (nth_in_or_default j ss empty_stream) as [Hin| ->]; [exact (Hterm_nz _ Hin)|discriminate].
  Qed.

  Lemma returned_inv : Z.eqb code 0 = true -> r = None.
  Proof.
    destruct r as [c|] eqn:Er; [|reflexivity]. intro H. apply Z.eqb_eq in H. exfalso.
    revert H. eapply nz_decorator_get; [exact Hfm_nz| |exact Hrun].
    intro i. rewrite nth_gets, tget_term. split; [apply tget_end_nz|]; apply nth_term_nz.
  Qed.

  Section Returned.
    Hypothesis Hr : r = None.

    Lemma run_ok : check batch maxmsg maxtree fm gets ar = (None, q).
    Proof. apply (get_ok_check _ _ _ _ _ size). rewrite Hrun, Hr. reflexivity. Qed.

    Lemma contra (P : Prop) : (P -> fst (check batch maxmsg maxtree fm gets ar) <> None) -> ~ P.
    Proof. intros H HP. apply (H HP). rewrite run_ok. reflexivity. Qed.

    Lemma dir_facts j od :
      nth_error (ar_dirs ar) j = Some od ->
      tg_end (tget_of_stream (nth j ss empty_stream)) = None
      /\ forall it, In it (tg_items (tget_of_stream (nth j ss empty_stream))) ->
           ~ Exists (malformed) (item_digs (is_some (od_root od)) it).
    Proof.
      intro Hj.
      pose proof (contra _ (check_tree_error_is_error batch maxmsg maxtree fm gets ar j od Hj)) as Hnb.
      rewrite nth_gets in Hnb. unfold bad_tget in Hnb. split.
      - destruct (tg_end (tget_of_stream (nth j ss empty_stream))) as [c|]; [|reflexivity].
        exfalso. apply Hnb. left. eauto.
      - intros it Hit Hm. apply Hnb. right. apply Exists_exists. exists it. split; [exact Hit|left; exact Hm].
    Qed.

    Lemma zs_facts od s :
      In (od, s) (m_zs ar ss) ->
      exists j, nth_error (ar_dirs ar) j = Some od /\ s = nth j ss empty_stream
                /\ stream_consistent s /\ tg_end (tget_of_stream s) = None.
    Proof.
      intro H. apply zip_streams_in in H. destruct H as (j & Hj & ->). exists j.
      split; [exact Hj|]. split; [reflexivity|].
      split; [apply consistent_nth, Hcons|apply (dir_facts _ _ Hj)].
    Qed.

    Lemma zs_intact od s : In (od, s) (m_zs ar ss) -> stream_intact s = true.
    Proof.
      intro H. destruct (zs_facts _ _ H) as (j & _ & _ & Hc & He).
      destruct (visit_ok_facts _ Hc He) as (Ht & Hcl & Hf).
      apply stream_intact_intro; [exact Ht|exact Hcl|].
      intros x Hx. destruct (Hf x Hx) as (d & sz & -> & _). eauto.
    Qed.

    (** A digest the monitor takes from an intact tree is one the model took
        from the delivered items of that tree. *)
    Lemma tdigs_items o :
      In o (m_tdigs ar ss) ->
      exists j od it, nth_error (ar_dirs ar) j = Some od
                      /\ In it (tg_items (nth j gets get_not_found))
                      /\ In o (item_digs (is_some (od_root od)) it).
    Proof.
      unfold m_tdigs. rewrite in_flat_map. intros ([od s] & Hp & Ho). cbn [fst snd] in Ho.
      apply filter_In in Hp. destruct Hp as [Hp _].
      destruct (zs_facts _ _ Hp) as (j & Hj & Hs & Hc & He).
      destruct (visit_ok_facts _ Hc He) as (_ & _ & Hf).
      unfold tree_digs in Ho. apply in_flat_map in Ho. destruct Ho as (x & Hx & Ho).
      destruct (Hf x Hx) as (d & sz & -> & Hit).
      exists j, od, (d, sz). rewrite nth_gets, <- Hs. repeat split; [exact Hj|exact Hit|exact Ho].
    Qed.

    Lemma no_malformed_ar :
      ~ (Exists malformed (ar_files ar)
         \/ Exists (fun od => malformed (od_tree od) \/ malformed (od_root od) \/ od_tree od = None) (ar_dirs ar)
         \/ malformed (ar_stdout ar) \/ malformed (ar_stderr ar)).
    Proof. apply contra. apply check_malformed_is_error. Qed.

    Lemma refd_referenced d :
      In d (valid_ids (m_ar_digs ar ++ m_tdigs ar ss)) -> In d (referenced ar gets).
    Proof.
      intro H. apply valid_ids_in in H. destruct H as (w & Hin & _ & ->).
      unfold referenced. apply in_app_iff in Hin. destruct Hin as [Hin|Hin].
      - unfold m_ar_digs in Hin. apply in_app_iff in Hin. destruct Hin as [Hin|Hin].
        + apply in_app_iff. left. apply ids_of_in, Hin.
        + apply in_app_iff in Hin. apply in_app_iff. right. destruct Hin as [Hin|Hin].
          * apply in_app_iff. left. unfold outdir_ids. apply in_flat_map in Hin.
            destruct Hin as (od & Hod & Hin). apply in_flat_map. exists od. split; [exact Hod|].
            apply ids_of_in, Hin.
          * apply in_app_iff. right. apply in_app_iff. left. apply ids_of_in, Hin.
      - destruct (tdigs_items _ Hin) as (j & od & it & Hj & Hit & Ho).
        do 3 (apply in_app_iff; right).
        eapply (tree_ids_in gets (ar_dirs ar) 0 j od); [exact Hj|]. cbn [Nat.add].
        apply in_flat_map. exists it. split; [exact Hit|].
        unfold item_digs in Ho. unfold item_ids. apply in_app_iff in Ho. apply in_app_iff.
        destruct Ho as [Ho|Ho]; [left; apply ids_of_in, Ho|right].
        destruct (is_some (od_root od)); [apply ids_of_in, Ho|destruct Ho].
    Qed.

    Lemma cl1_false : cl1 ar ss code calls = false.
    Proof.
      unfold cl1. apply andb_false_iff. right. apply negb_false_iff, forallb_forall.
      intros d Hd. apply mem_true. apply refd_referenced in Hd.
      destruct (check_complete_only_if_all_present _ _ _ _ _ _ _ run_ok d Hd) as (k & b & m & Hlog & _ & Hb & Hm).
      eapply reported_present_intro; eauto.
    Qed.

    Lemma cl2_false : cl2 ar ss code = false.
    Proof.
      unfold cl2. apply andb_false_iff. right. apply orb_false_iff. split.
      - destruct (has_malformed (m_ar_digs ar ++ m_tdigs ar ss)) eqn:E; [exfalso|reflexivity].
        apply has_malformed_true in E. destruct E as (w & Hin & Hw).
        assert (Hmal : malformed (Some w)) by (exists w; auto).
        apply in_app_iff in Hin. destruct Hin as [Hin|Hin].
        + apply no_malformed_ar. unfold m_ar_digs in Hin.
          apply in_app_iff in Hin. destruct Hin as [Hin|Hin].
          * left. apply Exists_exists. eauto.
          * apply in_app_iff in Hin. destruct Hin as [Hin|Hin].
            -- right; left. apply in_flat_map in Hin. destruct Hin as (od & Hod & Hin).
               apply Exists_exists. exists od. split; [exact Hod|].
               destruct Hin as [E|[E|[]]]; rewrite E; auto.
            -- right; right. destruct Hin as [E|[E|[]]]; rewrite E; auto.
        + destruct (tdigs_items _ Hin) as (j & od & it & Hj & Hit & Ho).
          rewrite nth_gets in Hit. apply (proj2 (dir_facts _ _ Hj) it Hit).
          apply Exists_exists. eauto.
      - destruct (existsb (fun od => negb (is_some (od_tree od))) (ar_dirs ar)) eqn:E; [exfalso|reflexivity].
        apply existsb_exists in E. destruct E as (od & Hod & E).
        apply no_malformed_ar. right; left. apply Exists_exists. exists od. split; [exact Hod|].
        right; right. destruct (od_tree od); [discriminate|reflexivity].
    Qed.

    Lemma cl3_false : cl3 ar ss code = false.
    Proof.
      unfold cl3. apply andb_false_iff. right. apply negb_false_iff, forallb_forall.
      intros [od s] Hp. cbn [snd]. eapply zs_intact; eauto.
    Qed.

    Lemma sum_tree_sizes dirs :
      (forall od, In od dirs -> exists w, od_tree od = Some w /\ wd_ok w = true) ->
      fold_right Z.add 0 (map (fun od => match od_tree od with Some w => if wd_ok w then wd_size w else 0 | None => 0 end) dirs)
      = tree_sizes dirs.
    Proof.
      induction dirs as [|od t IH]; intro H; [reflexivity|].
      unfold tree_sizes. cbn [map fold_right]. fold (tree_sizes t).
      rewrite IH by (intros od' Hod'; apply H; right; exact Hod').
      destruct (H od (or_introl eq_refl)) as (w & -> & ->). reflexivity.
    Qed.

    Hypothesis Hbudget : ar_dirs ar <> [] \/ 0 <= maxtree.

    Lemma cl4_false : cl4 maxtree ar code = false.
    Proof.
      unfold cl4. apply andb_false_iff. right. apply Z.ltb_ge.
      rewrite sum_tree_sizes.
      - apply Z.nlt_ge. apply contra. apply check_tree_budget. exact Hbudget.
      - intros od Hod. destruct (od_tree od) as [w|] eqn:Et.
        + exists w. split; [reflexivity|]. destruct (wd_ok w) eqn:Ew; [reflexivity|exfalso].
          apply no_malformed_ar. right; left. apply Exists_exists. exists od. split; [exact Hod|].
          left. exists w. auto.
        + exfalso. apply no_malformed_ar. right; left. apply Exists_exists. exists od. auto.
    Qed.
  End Returned.

  Lemma cl5_false : (1 <= batch)%nat -> cl5 batch calls = false.
  Proof.
    intro Hb. unfold cl5. destruct (existsb _ _) eqn:E; [exfalso|reflexivity].
    apply existsb_exists in E. destruct E as (c & Hc & Hlt). apply Nat.ltb_lt in Hlt.
    apply fmcalls_inv in Hc. destruct Hc as (k & b & a & Hx & ->).
    destruct (get_every_batch_bounded _ _ _ _ _ _ _ _ Hb Hrun _ _ _ Hx) as [Hlen _].
    assert (Hl : length (sx_list (sx_nth (enc_call (CFm k b a)) 1)) = length (dedup_sort b)).
    { destruct a; cbn [enc_call]; rewrite sx_nth_L; cbn [nth]; apply sx_list_of_nats_length. }
    rewrite Hl in Hlt. pose proof (dedup_sort_length b). lia.
  Qed.

  Lemma cl6_false : cl6 ss code calls = false.
  Proof.
    unfold cl6.
    destruct (existsb _ (m_fmcalls calls)) eqn:E; [|reflexivity].
    destruct (forallb (fun s => negb (is_some (st_term s))) ss) eqn:F; [|reflexivity].
    cbn [andb]. apply negb_false_iff.
    apply existsb_exists in E. destruct E as (c & Hc & Hm).
    apply fmcalls_inv in Hc. destruct Hc as (k & b & a & Hx & ->).
    destruct a as [m|e].
    2:{ cbn in Hm. rewrite andb_false_r in Hm. discriminate. }
    cbn [enc_call] in Hm. rewrite !sx_nth_L in Hm. cbn [nth] in Hm.
    rewrite sx_list_of_nats_length in Hm. apply andb_prop in Hm. destruct Hm as [_ Hm].
    destruct m as [|x0 m]; [discriminate|].
    assert (Hres : r = Some code_not_found).
    { eapply nf6_decorator_get; [|exact Hrun|exact Hx].
      intro i. rewrite nth_gets, tget_term.
      destruct (nth_in_or_default i ss empty_stream) as [Hin| ->]; [left|right; reflexivity].
      apply (proj1 (forallb_forall _ _) F) in Hin.
      destruct (st_term (nth i ss empty_stream)); [discriminate|reflexivity]. }
    rewrite Hres. reflexivity.
  Qed.

  Lemma clauses_silent :
    (1 <= batch)%nat -> ar_dirs ar <> [] \/ 0 <= maxtree -> clauses batch maxtree ar ss code calls = [].
  Proof.
    intros Hb Hbud. unfold clauses. rewrite (cl5_false Hb), cl6_false.
    destruct (Z.eqb code 0) eqn:Hret.
    - pose proof (returned_inv Hret) as Hr.
      rewrite (cl1_false Hr), (cl2_false Hr), (cl3_false Hr), (cl4_false Hr Hbud). reflexivity.
    - unfold cl1, cl2, cl3, cl4. rewrite Hret. reflexivity.
  Qed.
End Silent.


Definition env_wf (env : sx) : Prop :=
  (1 <= sx_nat (sx_nth (sx_nth env 0) 0))%nat
  /\ (ar_dirs (dec_ar (sx_nth env 2)) <> [] \/ 0 <= sx_Z (sx_nth (sx_nth env 0) 2))
  /\ Forall stream_consistent (map dec_stream (sx_list (sx_nth env 3))).

Lemma dec_code_nz s c : dec_code s = Some c -> c <> 0.
Proof.
  unfold dec_code. destruct (Z.eqb (sx_Z s) 0) eqn:E; [discriminate|].
  intro H. inversion H. subst. apply Z.eqb_neq. exact E.
Qed.

Lemma fm_of_nz script default k b : fm_of script default k b <> FmErr 0.
Proof.
  unfold fm_of. destruct (Z.eqb (fst (nth k script (0, default))) 0) eqn:E; [discriminate|].
  intro H. inversion H as [H0]. rewrite H0 in E. discriminate.
Qed.

Lemma mon_env_silent env :
  env_wf env -> dec_code (sx_nth (sx_nth env 1) 0) = None ->
  mon_env env (match fst (run_env env) with None => 0 | Some c => c end)
          (map enc_call (rev (q_log (snd (run_env env))))) = [].
Proof.
  intros (Hb & Hbud & Hcons) Hac. rewrite mon_env_clauses. unfold run_env. cbv zeta.
  rewrite Hac, <- (map_map dec_stream tget_of_stream).
  destruct (decorator_get _ _ _ _ _ _) as [r q] eqn:Hrun. cbn [fst snd].
  eapply clauses_silent; [exact Hrun|exact Hcons|intros; apply fm_of_nz| |exact Hb|exact Hbud].
  intros s Hs. apply in_map_iff in Hs. destruct Hs as (x & <- & _).
  intro E. exact (dec_code_nz _ _ E eq_refl).
Qed.

(** The observation assembled from the model's own output. *)
Definition model_obs (env same : sx) : sx :=
  L [sx_nth (run13 env) 0; same; sx_nth (run13 env) 1; env].

(** * Every hypothesis is needed: the monitor fires on the model without it *)

Definition nec_env (cfg files dirs gets absent : sx) : sx :=
  L [cfg; L [A 0; A 10]; L [files; dirs; L []; L []; A 0]; gets; L [L []; absent]].

(** batch size 0: the final flush holds one digest, a batch larger than 0. *)
Example batch_needed :
  mon13 (L []) (model_obs (nec_env (L [A 0; A 100; A 100]) (L [L [A 1; A 1; A 5]]) (L []) (L []) (L [])) (A 1))
  = [5].
Proof. vm_compute. reflexivity. Qed.

(** negative tree budget and no output directory: the loop never compares. *)
Example budget_needed :
  mon13 (L []) (model_obs (nec_env (L [A 1; A 100; A (-1)]) (L []) (L []) (L []) (L [])) (A 1)) = [4].
Proof. vm_compute. reflexivity. Qed.

(** harness parse flagged unclean although the visit of the (empty) Tree succeeds. *)
Example clean_needed :
  mon13 (L []) (model_obs (nec_env (L [A 1; A 100; A 100]) (L []) (L [L [L [A 1; A 2; A 0]; L []]])
                            (L [L [L []; A 0; L []; A 0]]) (L [])) (A 1)) = [3].
Proof. vm_compute. reflexivity. Qed.

(** a listed root field (file 9, absent from the CAS) that the visitor never hands over. *)
Example field_visited_needed :
  mon13 (L []) (model_obs (nec_env (L [A 1; A 100; A 100]) (L []) (L [L [L [A 1; A 2; A 0]; L []]])
                            (L [L [L []; A 0; L [L [A 0; A 1; L [L [L [A 1; A 9; A 5]]; L []]]]; A 1]])
                            (L [A 9])) (A 1)) = [1].
Proof. vm_compute. reflexivity. Qed.

(** two listed fields under the same payload offset: the model decodes the first. *)
Example field_lookup_needed :
  mon13 (L []) (model_obs (nec_env (L [A 1; A 100; A 100]) (L []) (L [L [L [A 1; A 2; A 2]; L []]])
                            (L [L [L [A 10; A 0]; A 0;
                                   L [L [A 2; A 1; L [L []; L []]]; L [A 2; A 1; L [L [L [A 1; A 9; A 5]]; L []]]];
                                   A 1]])
                            (L [A 9])) (A 1)) = [1].
Proof. vm_compute. reflexivity. Qed.

(** Non-vacuity: a consistent environment with one Tree (root directory with
    file 5) satisfies [env_wf]; everything present => returned, silent. *)
Definition ok_env : sx :=
  nec_env (L [A 2; A 100; A 100]) (L [L [A 1; A 1; A 5]]) (L [L [L [A 1; A 2; A 2]; L [A 1; A 3; A 1]]])
          (L [L [L [A 10; A 0]; A 0; L [L [A 2; A 1; L [L [L [A 1; A 5; A 5]]; L []]]]; A 1]]) (L []).

Example ok_env_wf : env_wf ok_env.
Proof.
  split; [vm_compute; apply le_S, le_n|]. split; [left; vm_compute; discriminate|].
  apply Forall_forall. intros s Hs. vm_compute in Hs. destruct Hs as [<-|[]].
  intros vs H. vm_compute in H. inversion H. subst. clear H.
  split; [reflexivity|]. intros o num d Hin Hn. cbn [st_fields] in Hin.
  destruct Hin as [E|[]]. inversion E. subst.
  split; [vm_compute; reflexivity|]. eexists. split; [left; reflexivity|]. split; vm_compute; reflexivity.
Qed.

Example ok_env_run : run13 ok_env = L [A 0; L [L [A 0; L [A 1; A 2]; A 0; L []]; L [A 1; A 2];
                                               L [A 0; L [A 3; A 5]; A 0; L []]]].
Proof. vm_compute. reflexivity. Qed.
