(** C03, monitor versus model — part 7: obligations inherited over SEVERAL restarts.

    The ghost history of Persist/Shutdown.v starts every incarnation with no acknowledgements, and
    [graceful] / [crash_commit_covers] (Props/C03.v) speak about the acknowledgements made in that incarnation.
    The monitor, however, keeps a copy as an obligation over any number of restarts as long as every
    exit in between was graceful or followed a completed commit.  Here the ghost of the next
    incarnation is STARTED on the acknowledgements the previous one left covered ([inh_list]: those
    whose block was still listed, renumbered relative to the written state), which is sound because a
    covered acknowledgement satisfies the block-list invariant of the restarted list ([G_inherit]).
    All invariants are closed under steps from ANY state that satisfies them, so the theorems of one
    incarnation hold again — also for the inherited acknowledgements:
    [mon03_obligations_sound_chain]: on every accepted observation in which every restart re-attached
    all blocks of the state file, incarnation after incarnation, whenever the monitor carries its
    obligations on, the state on the medium covers every acknowledgement of this incarnation AND every
    inherited one (unless rotation evicted its block). *)
From Coq Require Import List NArith ZArith Bool Arith Lia.
From BBS Require Import Common.Sx Common.SxFactsMA Persist.PBL Persist.PBLProofs Persist.Syncer Persist.SyncerProofs
  Persist.Shutdown Persist.ShutdownArith Persist.ShutdownProofs Persist.ShutdownOrder Run.R03 Run.R03MonGhost Run.R03MonFields
  Run.R03MonReplay Run.R03Mon Run.R03MonObs.
Import ListNotations.
Local Open Scope nat_scope.

Definition inh (w : gwrite) (a : ack) : ack :=
  mkAck (a_abs a - gw_base_abs w) (a_end a) (a_ep a - gw_base_ep w) (a_last a - gw_base_abs w) (a_seed a) (a_ref a).
Definition inh_list (w : gwrite) (l : list ack) : list ack :=
  map (inh w) (filter (fun a => gw_base_abs w <=? a_abs a) l).
Definition g_inh (l : list ack) : gsys := mkGs (mkGp 0 l l l) None None [].

Lemma g_inh_nil : g_inh [] = g0.
Proof. reflexivity. Qed.

Lemma restore_cursors alloc init : forall n bl sd ls, restore_blocks alloc init n = (bl, sd, ls) ->
  Forall (fun b => b_syncing b = b_written b /\ b_synced b = b_written b) bl.
Proof.
  induction init as [|bs rest IH]; intros n bl sd ls H; cbn in H.
  - inversion H. constructor.
  - destruct (alloc _ _); [|inversion H; constructor].
    destruct (restore_blocks alloc rest (S n)) as [[bl' sd'] ls'] eqn:E. injection H as <-.
    constructor; [cbn; auto|eapply IH; eauto].
Qed.

Lemma restore_full alloc init : forall n bl sd ls, restore_blocks alloc init n = (bl, sd, ls) ->
  length bl = length init -> restore_blocks (fun _ _ => true) init n = (bl, sd, ls).
Proof.
  induction init as [|b rest IH]; intros n bl sd ls H L; cbn in *; [exact H|].
  destruct (alloc _ _).
  - destruct (restore_blocks alloc rest (S n)) as [[bl' sd'] ls'] eqn:E. injection H as <- <- <-. cbn in L.
    rewrite (IH _ _ _ _ E) by lia. reflexivity.
  - injection H as <-. cbn in L. discriminate.
Qed.

Lemma restart_sync st : synchronizingEpochs (restart_of st) = length (epochSeeds (restart_of st)) /\
                        synchronizedEpochs (restart_of st) = length (epochSeeds (restart_of st)).
Proof. unfold restart_of, pbl_new. destruct (restore_blocks _ _ _) as [[bl sd] ls]. cbn. auto. Qed.

Lemma inh_props o w A l a' : fst (gw_state w) = u32 (o + N.of_nat (gw_base_ep w)) ->
  Forall (ack_static o) A -> (forall a, In a A -> covers w a) -> In a' (inh_list w A) ->
  ack_live (restart_of (gw_state w)) (mkGp 0 l l l) a' /\
  ack_syncing (restart_of (gw_state w)) (mkGp 0 l l l) a' /\
  ack_synced (restart_of (gw_state w)) (mkGp 0 l l l) a' /\
  ack_static (fst (gw_state w)) a'.
Proof.
  intros Hold HstA HcovA Hin. unfold inh_list in Hin. apply in_map_iff in Hin. destruct Hin as [a [<- Hin]].
  apply filter_In in Hin. destruct Hin as [Hin Hbase]. apply Nat.leb_le in Hbase.
  rewrite Forall_forall in HstA. pose proof (HstA a Hin) as Hst.
  destruct (HcovA a Hin) as [E|[Hge [Hep [Hs [Hl [Hle [b [Hb Hbw]]]]]]]]; [lia|]. cbn zeta in *.
  set (p := restart_of (gw_state w)) in *.
  destruct (restore_blocks (fun _ _ => true) (snd (gw_state w)) 0) as [[bl sd] ls] eqn:E.
  destruct (restart_shape _ _ _ _ E) as [R1 [R2 [R3 [R4 [R5 R6]]]]]. fold p in R1, R2, R3, R4, R5, R6.
  destruct (restart_sync (gw_state w)) as [Y1 Y2]. fold p in Y1, Y2.
  assert (Hcur : b_syncing b = b_written b /\ b_synced b = b_written b).
  { pose proof (restore_cursors _ _ _ _ _ _ E) as F. rewrite Forall_forall in F. apply F.
    rewrite <- R1. eapply nth_error_In; eauto. }
  assert (Hpos : a_ep a - gw_base_ep w < length (epochSeeds p)) by (apply nth_error_Some; congruence).
  split; [|split; [|split]].
  - constructor; unfold pos; cbn [inh a_abs a_ep a_seed a_last a_end g_pe]; rewrite ?R4, ?Nat.sub_0_r; auto; try lia.
    exists b. auto.
  - right. unfold pos. cbn [inh a_abs a_ep a_end g_pe]. rewrite R4, !Nat.sub_0_r, Y1. split; [exact Hpos|].
    exists b. split; [exact Hb|]. rewrite (proj1 Hcur). exact Hbw.
  - right. unfold pos. cbn [inh a_abs a_ep a_end g_pe]. rewrite R4, !Nat.sub_0_r, Y2. split; [exact Hpos|].
    exists b. split; [exact Hb|]. rewrite (proj2 Hcur). exact Hbw.
  - unfold ack_static in *. cbn [inh a_ref a_ep a_last a_abs]. rewrite Hst, Hold, u32_add_l.
    f_equal; f_equal; lia.
Qed.

Lemma inh_ginv o w A : fst (gw_state w) = u32 (o + N.of_nat (gw_base_ep w)) ->
  Forall (ack_static o) A -> (forall a, In a A -> covers w a) ->
  ginv (fst (gw_state w)) (restart_of (gw_state w)) (mkGp 0 (inh_list w A) (inh_list w A) (inh_list w A)).
Proof.
  intros Hold Hst Hcov.
  destruct (restart_wf (gw_state w)) as [_ Hel].
  destruct (restore_blocks (fun _ _ => true) (snd (gw_state w)) 0) as [[bl sd] ls] eqn:E.
  destruct (restart_shape _ _ _ _ E) as [_ [_ [_ [_ [R5 _]]]]].
  constructor; cbn [g_pe g_acks g_syncing g_synced].
  - exact Hel.
  - rewrite R5, N.add_0_r. reflexivity.
  - rewrite Forall_forall. intros a' Hin. right. apply (inh_props o w A (inh_list w A) a' Hold Hst Hcov Hin).
  - rewrite Forall_forall. intros a' Hin. apply (inh_props o w A (inh_list w A) a' Hold Hst Hcov Hin).
  - rewrite Forall_forall. intros a' Hin. apply (inh_props o w A (inh_list w A) a' Hold Hst Hcov Hin).
  - rewrite Forall_forall. intros a' Hin. apply (inh_props o w A (inh_list w A) a' Hold Hst Hcov Hin).
  - apply incl_refl.
  - apply incl_refl.
Qed.

Lemma G_inherit o w A t0 : fst (gw_state w) = u32 (o + N.of_nat (gw_base_ep w)) ->
  Forall (ack_static o) A -> (forall a, In a A -> covers w a) ->
  G (fst (gw_state w)) (init_sys (restart_of (gw_state w)) t0) (g_inh (inh_list w A)).
Proof.
  intros Hold Hst Hcov.
  assert (Hc : closedForWriting (restart_of (gw_state w)) = false).
  { destruct (restore_blocks (fun _ _ => true) (snd (gw_state w)) 0) as [[bl sd] ls] eqn:E.
    destruct (restart_shape _ _ _ _ E) as [_ [_ [_ [_ [_ R6]]]]]. exact R6. }
  split; [|intros [|] st H; cbn in H; discriminate].
  split; [split; [split; [|split]|split; [|split]]|].
  - unfold restart_of. apply init_inv1.
  - cbn [s_pbl init_sys gs_g g_inh]. apply (inh_ginv o); assumption.
  - unfold wok, g_inh. cbn. auto.
  - apply init_inv3.
  - intros C. cbn [s_pbl init_sys] in C. rewrite Hc in C. discriminate.
  - exact I.
  - unfold ch, pend_ok, g_inh. cbn. splits; auto; apply suffix_refl.
Qed.

Lemma G_next o s gx w rest t0 : G o s gx -> gs_writes gx = w :: rest ->
  (forall a, In a (g_acks (gs_g gx)) -> covers w a) ->
  G (fst (gw_state w)) (init_sys (restart_of (gw_state w)) t0) (g_inh (inh_list w (g_acks (gs_g gx)))).
Proof.
  intros [[[[_ [Gi [Wk _]]] _] _] _] Hw Hcov. apply (G_inherit o).
  - rewrite Hw in Wk. apply Forall_inv in Wk. destruct Wk as [_ [_ Wk]]. exact Wk.
  - apply (gi_static _ _ _ Gi).
  - exact Hcov.
Qed.

Lemma G_fresh st t0 : G (fst st) (init_sys (restart_of st) t0) (g_inh []).
Proof. rewrite g_inh_nil. unfold restart_of. apply G_init. Qed.

Lemma gstep_acks_grow s e s' x : exists pre, g_acks (gs_g (gstep s e s' x)) = pre ++ g_acks (gs_g x).
Proof.
  destruct e as [alloc| |index size|k blk seed|d| |t a];
    try (exists []; apply gstep_acks_same; intros k0 b0 sd0 Hc; discriminate).
  cbn [gstep]. destruct (nth_error _ _) as [[[[|abs] sz]|]|]; try (exists []; reflexivity).
  destruct (put_finalize _ _ _ _ _) as [[p' [off| | |]]|]; try (exists []; reflexivity).
  destruct (mk_ack _ _ _ _) as [a|]; [|exists []; reflexivity]. exists [a]. reflexivity.
Qed.

Lemma gpath_acks_grow cfg P s x s' x' : gpath cfg P s x s' x' -> exists pre, g_acks (gs_g x') = pre ++ g_acks (gs_g x).
Proof.
  induction 1 as [|s x e s1 s' x' _ _ _ [pre IH]]; [exists []; reflexivity|].
  destruct (gstep_acks_grow s e s1 x) as [pre1 H1]. exists (pre ++ pre1). rewrite IH, H1, app_assoc. reflexivity.
Qed.

Lemma list_eqb_eq {A} (f : A -> A -> bool) : (forall a b, f a b = true -> a = b) ->
  forall l1 l2, list_eqb f l1 l2 = true -> l1 = l2.
Proof.
  intros Hf. induction l1 as [|x l1 IH]; intros [|y l2] H; cbn in H; try discriminate; [reflexivity|].
  apply andb_prop in H. destruct H as [H1 H2]. rewrite (Hf _ _ H1), (IH _ H2). reflexivity.
Qed.

Lemma of_Ns_inj : forall l1 l2, of_Ns l1 = of_Ns l2 -> l1 = l2.
Proof.
  unfold of_Ns. intros l1 l2 H. inversion H as [H1]. clear H. revert l2 H1.
  induction l1 as [|x l1 IH]; intros [|y l2] H; cbn in H; try discriminate; [reflexivity|].
  inversion H as [[Hx Hl]]. apply N2Z.inj in Hx. subst. f_equal. apply IH. exact Hl.
Qed.

Lemma bstate_eqb_eq a b : bstate_eqb a b = true -> a = b.
Proof.
  destruct a as [[a1 a2] ao as_], b as [[b1 b2] bo bs_]. unfold bstate_eqb, loc_eqb. cbn [bs_loc bs_off bs_seeds fst snd].
  intros H. apply andb_prop in H. destruct H as [H H3]. apply andb_prop in H. destruct H as [H H2].
  apply andb_prop in H. destruct H as [H0 H1].
  apply Z.eqb_eq in H0, H1, H2. apply sx_eqb_eq, of_Ns_inj in H3. subst. reflexivity.
Qed.

Lemma pstate_eqb_eq a b : pstate_eqb a b = true -> a = b.
Proof.
  destruct a as [a1 a2], b as [b1 b2]. unfold pstate_eqb. cbn. intros H. apply andb_prop in H.
  destruct H as [H1 H2]. apply N.eqb_eq in H1. apply (list_eqb_eq _ bstate_eqb_eq) in H2. subst. reflexivity.
Qed.

(** the restore entry says that every block of the state file was re-attached *)
Definition all_restored (e0 : sx) : bool :=
  Nat.eqb (sx_nat (sx_nth e0 1)) (length (sx_list (sx_nth (sx_nth e0 2) 1))).

Lemma restore_is_restart c cfg bs st0 now e0 x0 : replay_restore c cfg bs st0 now e0 = Some x0 ->
  all_restored e0 = true ->
  tag e0 = 0%Z /\ x_state x0 = st0 /\ x_sys x0 = init_sys (restart_of st0) now.
Proof.
  intros H Hall. destruct (replay_restore_inv _ _ _ _ _ _ _ H) as [T [Eq [al [-> Hn]]]]. cbv zeta in Eq, Hn |- *.
  apply Nat.eqb_eq in Hall. apply pstate_eqb_eq in Eq.
  assert (Hlen : length (snd st0) = length (sx_list (sx_nth (sx_nth e0 2) 1))).
  { rewrite <- Eq. unfold dec_state. cbn [snd]. apply map_length. }
  rewrite Eq in Hn |- *. split; [exact T|]. split; [reflexivity|]. cbn [x_sys]. f_equal.
  (* every block was re-attached, so the allocator's answers are those of [restart_of] *)
  unfold restart_of, pbl_new in Hn |- *. destruct (restore_blocks al (snd st0) 0) as [[bl sd] ls] eqn:E.
  cbn [new_nc fst snd] in Hn. rewrite (restore_full al _ _ _ _ _ E) by lia. reflexivity.
Qed.

Lemma incarnation_from o cfg bs cfgsx objs ops st0 m0 e0 es x0 x1 A :
  G o (x_sys x0) (g_inh A) -> x_state x0 = st0 -> tag e0 = 0%Z -> m_fresh m0 ->
  replay_entries cfg bs 1 x0 es = (x1, []) ->
  exists gx, G o (x_sys x1) gx /\
    (exists tr, grun cfg (x_sys x0) (g_inh A) tr = Some (Ok (x_sys x1, gx))) /\
    (exists pre, g_acks (gs_g gx) = pre ++ A) /\
    (m_prev (mon_exit (fold_left (mon_entry cfgsx objs ops) (e0 :: es) m0)) <> 0%Z ->
       exists w rest, gs_writes gx = w :: rest /\ x_state x1 = gw_state w /\
                      gw_cohort w = g_acks (gs_g gx) /\
                      forall a, In a (g_acks (gs_g gx)) -> covers w a).
Proof.
  intros Hg0 Hst T0 Hf He. cbn [fold_left].
  pose proof (J_restore_entry cfgsx objs ops m0 e0 (x_sys x0) (g_inh A) T0 Hf) as Hj0.
  assert (Hk0 : K st0 x0 (g_inh A)) by (unfold K; cbn; exact Hst).
  destruct (entries_inv o cfg bs cfgsx objs ops st0 es 1 _ x0 x1 (g_inh A) Hg0 Hj0 Hk0 He) as [gx [Hp [Hg [Hj Hk]]]].
  exists gx. split; [exact Hg|]. split; [eapply gpath_grun; eauto|].
  split; [apply (gpath_acks_grow _ _ _ _ _ _ Hp)|].
  apply (exit_covers o st0 _ x1 gx Hg Hj Hk).
Qed.

(** at every reachable state, every acknowledgement the ghost carries (inherited ones included)
    is evicted or its index record resolves *)
Lemma u32_idem a : u32 (u32 a) = u32 a.
Proof. unfold u32. apply N.mod_mod. discriminate. Qed.

Lemma live_record_resolves o p g a : ginv o p g -> ack_live p g a -> ack_static o a ->
  (N.of_nat (a_ep a - g_pe g) < 2 ^ 32)%N -> (Z.of_nat (a_last a - a_abs a) < 2 ^ 16)%Z ->
  ref_to_index (fst (a_ref a)) (snd (a_ref a)) p = Ok (Some (a_abs a - totalReleased p, a_seed a)).
Proof.
  intros Gi [Hge Hep Hs Hl Hle _] Hst H32 H16. unfold pos in *.
  unfold ack_static in Hst. rewrite Hst. cbn [fst snd]. unfold ref_to_index.
  rewrite (gi_old _ _ _ Gi), <- (u32_idem (o + N.of_nat (g_pe g))), u32_diff by assumption.
  rewrite Nat2N.id, Hl, Hs.
  assert (nth_error (epochSeeds p) (a_ep a - g_pe g) <> None) as Hn by congruence.
  apply nth_error_Some in Hn.
  destruct (N.leb_spec (N.of_nat (length (epochSeeds p))) (N.of_nat (a_ep a - g_pe g))); [lia|].
  rewrite u16_small by lia.
  destruct (Z.ltb_spec (Z.of_nat (a_last a) - Z.of_nat (totalReleased p))
                       (Z.of_N (Z.to_N (Z.of_nat (a_last a) - Z.of_nat (a_abs a))))); [lia|].
  repeat f_equal. lia.
Qed.

Definition acks_resolve (s : sys) (gx : gsys) : Prop :=
  forall a, In a (g_acks (gs_g gx)) ->
    (N.of_nat (a_ep a - g_pe (gs_g gx)) < 2 ^ 32)%N -> (Z.of_nat (a_last a - a_abs a) < 2 ^ 16)%Z ->
    a_abs a < totalReleased (s_pbl s) \/
    (ref_to_index (fst (a_ref a)) (snd (a_ref a)) (s_pbl s)
       = Ok (Some (a_abs a - totalReleased (s_pbl s), a_seed a)) /\
     exists b, nth_error (blocks (s_pbl s)) (a_abs a - totalReleased (s_pbl s)) = Some b /\
               (a_end a <= b_written b)%Z).

Lemma G_acks_resolve o s gx : G o s gx -> acks_resolve s gx.
Proof.
  intros [[[[_ [Gi _]] _] _] _] a Hin H32 H16.
  pose proof (gi_acks _ _ _ Gi) as F. rewrite Forall_forall in F.
  pose proof (gi_static _ _ _ Gi) as S. rewrite Forall_forall in S.
  destruct (F a Hin) as [E|L]; [left; exact E|right]. split.
  - eapply live_record_resolves; eauto.
  - destruct L. assumption.
Qed.

Lemma replay_entries_app cfg bs : forall es1 es2 n x x2, replay_entries cfg bs n x (es1 ++ es2) = (x2, []) ->
  exists x1, replay_entries cfg bs n x es1 = (x1, []) /\ replay_entries cfg bs (n + length es1) x1 es2 = (x2, []).
Proof.
  induction es1 as [|e es1 IH]; intros es2 n x x2 H; cbn [app replay_entries length] in *.
  - exists x. rewrite Nat.add_0_r. auto.
  - destruct (replay_entry cfg bs x e) as [x'|]; [|discriminate].
    destruct (IH _ _ _ _ H) as [x1 [H1 H2]]. exists x1. split; [exact H1|].
    replace (n + S (length es1)) with (S n + length es1) by lia. exact H2.
Qed.

Definition next_acks (prev : Z) (gx : gsys) : list ack :=
  if Z.eqb prev 0 then [] else
  match gs_writes gx with w :: _ => inh_list w (g_acks (gs_g gx)) | [] => [] end.

Fixpoint chain_sound (cfgsx objs c : sx) (cfg : config) (bs : Z) (incs hists : list sx) (m : mst)
    (st0 : pstate) (now : N) (A : list ack) : Prop :=
  match incs, hists with
  | inc :: incs', h :: hists' =>
      match sx_list h with
      | e0 :: es =>
          exists x1 gx,
            (* the incarnation is a run of the model from NewPersistentBlockList(st0) + NewPeriodicSyncer,
               the ghost started on the inherited acknowledgements A *)
            (exists tr, grun cfg (init_sys (restart_of st0) now) (g_inh A) tr = Some (Ok (x_sys x1, gx))) /\
            (exists pre, g_acks (gs_g gx) = pre ++ A) /\
            (* at EVERY point of the incarnation's history: every acknowledgement made so far or inherited
               is evicted (its block was rotated out) or its index record resolves on the current list *)
            (forall es1 es2, es = es1 ++ es2 ->
               exists x0 x' gx', replay_restore c cfg bs st0 now e0 = Some x0 /\
                 replay_entries cfg bs 1 x0 es1 = (x', []) /\
                 (exists tr, grun cfg (init_sys (restart_of st0) now) (g_inh A) tr = Some (Ok (x_sys x', gx'))) /\
                 (exists pre, g_acks (gs_g gx') = pre ++ A) /\ acks_resolve (x_sys x') gx') /\
            let m1 := fold_left (mon_entry cfgsx objs (sx_list (sx_nth inc 1))) (e0 :: es) m in
            (m_prev (mon_exit m1) <> 0%Z ->
               exists w rest, gs_writes gx = w :: rest /\ x_state x1 = gw_state w /\
                              gw_cohort w = g_acks (gs_g gx) /\
                              forall a, In a (g_acks (gs_g gx)) -> covers w a) /\
            chain_sound cfgsx objs c cfg bs incs' hists' (mon_exit m1) (x_state x1) (s_now (x_sys x1))
                        (next_acks (m_prev (mon_exit m1)) gx)
      | [] => False
      end
  | _, _ => True
  end.

Definition all_restored_h (h : sx) : bool :=
  match sx_list h with e0 :: _ => all_restored e0 | [] => true end.

Lemma incs_chain_sound cfgsx objs c cfg bs : forall hists incs m inc st0 now A,
  m_fresh m -> G (fst st0) (init_sys (restart_of st0) now) (g_inh A) ->
  forallb all_restored_h hists = true ->
  replay_hists c cfg bs inc st0 now hists = [] ->
  chain_sound cfgsx objs c cfg bs incs hists m st0 now A.
Proof.
  induction hists as [|h hs IH]; intros [|ic incs] m inc st0 now A Hf Hg Hall Hr; cbn [chain_sound]; auto.
  destruct (replay_hists_cons _ _ _ _ _ _ _ _ Hr) as [e0 [es [x0 [x1 [Eh [R0 [R1 R2]]]]]]].
  cbn [forallb] in Hall. apply andb_prop in Hall. destruct Hall as [Ha1 Ha2].
  unfold all_restored_h in Ha1. rewrite Eh in *.
  destruct (restore_is_restart _ _ _ _ _ _ _ R0 Ha1) as [T0 [Hst Hx0]].
  rewrite <- Hx0 in Hg.
  destruct (incarnation_from (fst st0) cfg bs cfgsx objs (sx_list (sx_nth ic 1)) st0 m e0 es x0 x1 A
              Hg Hst T0 Hf R1) as [gx [Hg1 [Hrun [Hgrow Hob]]]].
  exists x1, gx. rewrite <- Hx0. split; [exact Hrun|]. split; [exact Hgrow|]. split.
  { intros es1 es2 Hsplit. rewrite Hsplit in R1. destruct (replay_entries_app _ _ _ _ _ _ _ R1) as [x' [R1a _]].
    destruct (incarnation_from (fst st0) cfg bs cfgsx objs (sx_list (sx_nth ic 1)) st0 m e0 es1 x0 x' A
                Hg Hst T0 Hf R1a) as [gx' [Hg' [Hrun' [Hgrow' _]]]].
    exists x0, x', gx'. split; [exact R0|]. split; [exact R1a|]. split; [exact Hrun'|]. split; [exact Hgrow'|].
    eapply G_acks_resolve; eauto. }
  cbv zeta. split; [exact Hob|].
  set (m1 := fold_left _ (e0 :: es) m) in *.
  apply (IH incs (mon_exit m1) (S inc)); [apply mon_exit_fresh| |exact Ha2|exact R2].
  unfold next_acks. destruct (Z.eqb_spec (m_prev (mon_exit m1)) 0) as [E|N]; [apply G_fresh|].
  destruct (Hob N) as [w [rest [Hw [Hxs [Hc Hcov]]]]]. rewrite Hw, Hxs. exact (G_next _ _ _ _ _ _ Hg1 Hw Hcov).
Qed.

Theorem mon03_obligations_sound_chain inp obs : replay03 inp obs = [] ->
  forallb all_restored_h (sx_list obs) = true ->
  let c := sx_nth inp 0 in
  chain_sound c (sx_nth inp 1) c (mkConfig (sx_N (sx_nth c 9)) (sx_N (sx_nth c 10))) (sx_Z (sx_nth c 0))
              (sx_list (sx_nth inp 2)) (sx_list obs) m_init init_pstate 0%N [].
Proof.
  intros Hr Hall c. eapply incs_chain_sound; [apply m_init_fresh|apply G_fresh|exact Hall|exact Hr].
Qed.
