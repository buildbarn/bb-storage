(** C17 / C17L: facts about the event log of a model trace (Compose/EventLog.v)
    and about the monitor's log predicates (Run/R17Conc.v) that the silence
    proofs of clauses 24, 25 and 27 share. *)
From Coq Require Import List ZArith NArith Bool Arith Lia.
From BBS Require Import Common.Sx Common.SxFactsMA Common.ListX Run.MonSilentSx Compose.ExistenceCache Compose.ExistenceCacheProofs
  Compose.Replicators Compose.ReplicatorsProofs Compose.MonSilentRepl Compose.EventLog Run.R17Conc.
Import ListNotations.
Local Open Scope nat_scope.

Definition is_start (i : nat) (e : sx) : bool := Z.eqb (lg_kind e) 0 && Nat.eqb (lg_caller e) i.
Definition is_succ (i : nat) (e : sx) : bool :=
  Z.eqb (lg_kind e) 3 && Nat.eqb (lg_caller e) i && Z.eqb (sx_Z (sx_nth e 2)) 0.
Definition same_caller (e e' : sx) : bool := Nat.eqb (lg_caller e') (lg_caller e).

Definition started_at (i : nat) (lg : list sx) (st : nat) : Prop := index_where (is_start i) lg 0 = Some st.
Definition tstart_of (lg : list sx) (st : nat) : N := sx_N (sx_nth (nth st lg (L [])) 2).
Definition J (d st : nat) (lg : list sx) : Prop := justified_after d st lg 0 = true.

Lemma caller_start i t : lg_caller (ev_start i t) = i.  Proof. apply sx_nat_of_nat. Qed.
Lemma caller_call i bk op d t : lg_caller (ev_call i bk op d t) = i.  Proof. apply sx_nat_of_nat. Qed.
Lemma caller_ret i bk op d c a t : lg_caller (ev_ret i bk op d c a t) = i.  Proof. apply sx_nat_of_nat. Qed.
Lemma caller_done i c t : lg_caller (ev_done i c t) = i.  Proof. apply sx_nat_of_nat. Qed.

Lemma arrive_caller i t p x : In x (arrive i t p) -> lg_caller x = i.
Proof. destruct p; cbn [arrive]; intros H; try contradiction; destruct H as [<-|[]]; apply sx_nat_of_nat. Qed.
Lemma returned_caller i s f p x : In x (returned i s f p) -> lg_caller x = i.
Proof. destruct p; cbn [returned]; intros H; try contradiction; destruct H as [<-|[]]; apply sx_nat_of_nat. Qed.

Lemma arrive_not_start i t p j x : In x (arrive i t p) -> is_start j x = false.
Proof. destruct p; cbn [arrive]; intros H; try contradiction; destruct H as [<-|[]]; reflexivity. Qed.
Lemma returned_not_start i s f p j x : In x (returned i s f p) -> is_start j x = false.
Proof. destruct p; cbn [returned]; intros H; try contradiction; destruct H as [<-|[]]; reflexivity. Qed.
Lemma returned_not_succ i s f p j x : In x (returned i s f p) -> is_succ j x = false.
Proof. destruct p; cbn [returned]; intros H; try contradiction; destruct H as [<-|[]]; reflexivity. Qed.

Definition plain_of (i : nat) (pre : list sx) : Prop :=
  forall x, In x pre -> lg_caller x = i /\ (forall j, is_start j x = false) /\ (forall j, is_succ j x = false).

Lemma plain_nil i : plain_of i [].
Proof. intros x []. Qed.
Lemma plain_ret i bk op d c a t : plain_of i [ev_ret i bk op d c a t].
Proof. intros x [<-|[]]. split; [apply caller_ret|split; reflexivity]. Qed.
Lemma plain_returned i s f p : plain_of i (returned i s f p).
Proof. destruct p; cbn [returned]; try apply plain_nil; apply plain_ret. Qed.

Lemma is_succ_done j i c t : is_succ j (ev_done i c t) = true -> j = i /\ c = 0%Z.
Proof.
  unfold is_succ. rewrite caller_done. change (lg_kind (ev_done i c t)) with 3%Z.
  change (sx_Z (sx_nth (ev_done i c t) 2)) with c. cbn [Z.eqb andb]. intros H.
  apply andb_prop in H. destruct H as [H1 H2]. apply Nat.eqb_eq in H1. apply Z.eqb_eq in H2. auto.
Qed.

Lemma arrive_succ i t p j x : In x (arrive i t p) -> is_succ j x = true -> j = i /\ p = Done 0.
Proof.
  destruct p; cbn [arrive]; intros H; try contradiction; destruct H as [<-|[]]; try discriminate.
  intros H. apply is_succ_done in H. destruct H as [-> ->]. auto.
Qed.

Lemma is_start_start j i t : is_start j (ev_start i t) = Nat.eqb i j.
Proof. unfold is_start. rewrite caller_start. reflexivity. Qed.
Lemma is_succ_start j i t : is_succ j (ev_start i t) = false.
Proof. reflexivity. Qed.

Lemma iw_app_some p l1 l2 : forall n st, index_where p l1 n = Some st -> index_where p (l1 ++ l2) n = Some st.
Proof.
  induction l1 as [|e r IH]; intros n st H; cbn [index_where app] in *; [discriminate|].
  destruct (p e); [exact H|apply IH; exact H].
Qed.

Lemma iw_app_none p l1 l2 : forall n, index_where p l1 n = None -> index_where p (l1 ++ l2) n = index_where p l2 (n + length l1).
Proof.
  induction l1 as [|e r IH]; intros n H; cbn [index_where app length] in *; [f_equal; lia|].
  destruct (p e); [discriminate|]. rewrite IH by exact H. f_equal. lia.
Qed.

Lemma iw_none p l : forall n, (forall x, In x l -> p x = false) -> index_where p l n = None.
Proof.
  induction l as [|e r IH]; intros n H; cbn [index_where]; [reflexivity|].
  rewrite (H e (or_introl eq_refl)). apply IH. intros x Hx. apply H. right. exact Hx.
Qed.

Lemma iw_range p l : forall n st, index_where p l n = Some st -> n <= st < n + length l.
Proof.
  induction l as [|e r IH]; intros n st H; cbn [index_where length] in *; [discriminate|].
  destruct (p e); [inversion H; lia|]. apply IH in H. lia.
Qed.

Lemma iw_app_clean p l1 l2 n : (forall x, In x l2 -> p x = false) -> index_where p (l1 ++ l2) n = index_where p l1 n.
Proof.
  intros H. destruct (index_where p l1 n) as [st|] eqn:E.
  - apply iw_app_some. exact E.
  - rewrite iw_app_none by exact E. apply iw_none. exact H.
Qed.

Lemma iw_some_in p l : forall n st, index_where p l n = Some st -> exists x, In x l /\ p x = true.
Proof.
  induction l as [|e r IH]; intros n st H; cbn [index_where] in *; [discriminate|].
  destruct (p e) eqn:E; [exists e; split; [left; reflexivity|exact E]|].
  destruct (IH _ _ H) as (x & Hx & Px). exists x. split; [right; exact Hx|exact Px].
Qed.

Lemma iw_nth p l : forall n st, index_where p l n = Some st -> p (nth (st - n) l (L [])) = true.
Proof.
  induction l as [|e r IH]; intros n st H; cbn [index_where] in *; [discriminate|].
  destruct (p e) eqn:E.
  - inversion H; subst. rewrite Nat.sub_diag. exact E.
  - pose proof (iw_range _ _ _ _ H) as R. specialize (IH _ _ H).
    replace (st - n) with (S (st - S n)) by lia. exact IH.
Qed.

Lemma started_lt i lg st : started_at i lg st -> st < length lg.
Proof. intros H. apply iw_range in H. lia. Qed.

Lemma started_app i lg new st : started_at i lg st -> started_at i (lg ++ new) st.
Proof. apply iw_app_some. Qed.

Lemma started_app_inv i lg new st : (forall x, In x new -> is_start i x = false) ->
  started_at i (lg ++ new) st -> started_at i lg st.
Proof. unfold started_at. intros H. rewrite iw_app_clean by exact H. auto. Qed.

Lemma tstart_app lg new st : st < length lg -> tstart_of (lg ++ new) st = tstart_of lg st.
Proof. intros H. unfold tstart_of. rewrite app_nth1 by exact H. reflexivity. Qed.

Lemma ja_app d st l1 l2 : forall pos, justified_after d st l1 pos = true -> st < pos + length l1 ->
  justified_after d st (l1 ++ l2) pos = true.
Proof.
  induction l1 as [|e r IH]; intros pos H Hl; cbn [justified_after app length] in *; [discriminate|].
  apply orb_true_iff in H. apply orb_true_iff. destruct H as [H|H].
  - left. apply andb_prop in H. destruct H as [Hj Hn]. rewrite Hj. cbn [andb].
    destruct (index_where (fun e' => Nat.eqb (lg_caller e') (lg_caller e)) r (S pos)) as [nx|] eqn:E.
    + rewrite (iw_app_some _ _ l2 _ _ E). exact Hn.
    + rewrite iw_app_none by exact E.
      destruct (index_where _ l2 _) as [nx|] eqn:E2; [|reflexivity].
      apply iw_range in E2. apply Nat.ltb_lt. lia.
  - right. apply IH; [exact H|lia].
Qed.

Lemma ja_late d st e l : forall pos, st < pos -> In e l -> justifies d e = true -> justified_after d st l pos = true.
Proof.
  induction l as [|x r IH]; intros pos Hp Hin Hj; [destruct Hin|]. cbn [justified_after].
  apply orb_true_iff. destruct Hin as [->|Hin].
  - left. rewrite Hj. cbn [andb].
    destruct (index_where _ r (S pos)) as [nx|] eqn:E; [|reflexivity].
    apply iw_range in E. apply Nat.ltb_lt. lia.
  - right. apply IH; [lia|exact Hin|exact Hj].
Qed.

Lemma ja_skip d st l1 l2 : forall pos, justified_after d st l2 (pos + length l1) = true ->
  justified_after d st (l1 ++ l2) pos = true.
Proof.
  induction l1 as [|e r IH]; intros pos H; cbn [app length] in *.
  - rewrite Nat.add_0_r in H. exact H.
  - cbn [justified_after]. apply orb_true_iff. right. apply IH.
    replace (S pos + length r) with (pos + S (length r)) by lia. exact H.
Qed.

Lemma J_app d st lg new : J d st lg -> st < length lg -> J d st (lg ++ new).
Proof. intros H Hl. apply ja_app; [exact H|exact Hl]. Qed.

(** A justifying event emitted now justifies every caller that has started. *)
Lemma J_new d st lg new e : st < length lg -> In e new -> justifies d e = true -> J d st (lg ++ new).
Proof.
  intros Hl Hin Hj. unfold J. apply ja_skip. cbn [Nat.add].
  destruct (length lg) as [|n] eqn:E; [lia|]. eapply ja_late; [|exact Hin|exact Hj]. lia.
Qed.

(** The last event of caller j justifies d: good for every start position. *)
Definition LastJ (j d : nat) (lg : list sx) : Prop :=
  exists l1 e l2, lg = l1 ++ e :: l2 /\ justifies d e = true /\ lg_caller e = j /\
                  forall x, In x l2 -> lg_caller x <> j.

Lemma LastJ_J j d lg st : LastJ j d lg -> J d st lg.
Proof.
  intros (l1 & e & l2 & -> & Hj & Hc & Hn). unfold J. apply ja_skip. cbn [justified_after].
  apply orb_true_iff. left. rewrite Hj. cbn [andb].
  rewrite iw_none; [reflexivity|]. intros x Hx. apply Nat.eqb_neq. rewrite Hc. apply Hn. exact Hx.
Qed.

Lemma LastJ_app j d lg new : LastJ j d lg -> (forall x, In x new -> lg_caller x <> j) -> LastJ j d (lg ++ new).
Proof.
  intros (l1 & e & l2 & -> & Hj & Hc & Hn) H. exists l1, e, (l2 ++ new). repeat split; try assumption.
  - rewrite <- app_assoc. reflexivity.
  - intros x Hx. apply in_app_or in Hx. destruct Hx as [Hx|Hx]; [apply Hn|apply H]; exact Hx.
Qed.

Lemma LastJ_new j d lg pre e : justifies d e = true -> lg_caller e = j -> LastJ j d ((lg ++ pre) ++ [e]).
Proof. intros Hj Hc. exists (lg ++ pre), e, []. repeat split; try assumption. intros x []. Qed.

Lemma justifies_put_ok i d t : justifies d (ev_ret i 0 1 d 0 [] t) = true.
Proof.
  unfold justifies. change (lg_kind (ev_ret i 0 1 d 0 [] t)) with 2%Z.
  change (sx_nth (ev_ret i 0 1 d 0 [] t) 4) with (of_nats [d]). rewrite sx_eqb_refl. reflexivity.
Qed.
Lemma justifies_fm_present i d t : justifies d (ev_ret i 0 2 d 0 [] t) = true.
Proof.
  unfold justifies. change (lg_kind (ev_ret i 0 2 d 0 [] t)) with 2%Z.
  change (sx_nth (ev_ret i 0 2 d 0 [] t) 4) with (of_nats [d]). rewrite sx_eqb_refl. reflexivity.
Qed.

Definition put_ok (d : nat) (e : sx) : bool :=
  Z.eqb (lg_kind e) 2 && Z.eqb (sx_Z (sx_nth e 2)) 0 && Z.eqb (sx_Z (sx_nth e 3)) 1
  && sx_eqb (sx_nth e 4) (of_nats [d]) && Z.eqb (sx_Z (sx_nth e 5)) 0.

Lemma put_ok_ret i d t : put_ok d (ev_ret i 0 1 d 0 [] t) = true.
Proof.
  unfold put_ok. change (sx_nth (ev_ret i 0 1 d 0 [] t) 4) with (of_nats [d]). rewrite sx_eqb_refl. reflexivity.
Qed.

Lemma copied_within_intro d dur tstart lg e f :
  In e lg -> In f lg -> put_ok d e = true -> is_succ (lg_caller e) f = true ->
  (tstart <= sx_N (sx_nth f 3) + dur)%N -> copied_within d dur tstart lg = true.
Proof.
  intros He Hf Pe Sf Ht. unfold copied_within. apply existsb_exists. exists e. split; [exact He|].
  unfold put_ok in Pe. rewrite Pe. cbn [andb]. apply existsb_exists. exists f. split; [exact Hf|].
  unfold is_succ in Sf. apply andb_prop in Sf. destruct Sf as [Sf S3]. apply andb_prop in Sf. destruct Sf as [S1 S2].
  rewrite S1, S2, S3. cbn [andb]. apply N.leb_le. exact Ht.
Qed.

Lemma existsb_app_l {T} (p : T -> bool) l1 l2 : existsb p l1 = true -> existsb p (l1 ++ l2) = true.
Proof. intros H. rewrite existsb_app, H. reflexivity. Qed.

Lemma copied_within_app d dur tstart lg new : copied_within d dur tstart lg = true ->
  copied_within d dur tstart (lg ++ new) = true.
Proof.
  unfold copied_within. intros H. apply existsb_exists in H. destruct H as (e & He & H).
  apply existsb_exists. exists e. split; [apply in_or_app; left; exact He|].
  apply andb_prop in H. destruct H as [H1 H2]. rewrite H1. cbn [andb]. apply existsb_app_l. exact H2.
Qed.

Lemma pc_of_at s i t : nth_error (thr s) i = Some t -> pc_of s i = tpc t.
Proof. unfold pc_of. intros ->. reflexivity. Qed.

Lemma pc_of_set_thr s i t x : nth_error (thr s) i = Some t -> pc_of (set_thr i x s) i = tpc x.
Proof. intros H. unfold pc_of. cbn [set_thr thr]. rewrite (nth_error_upd_eq _ _ _ _ H). reflexivity. Qed.

Lemma all_upd (P : nat -> thread -> Prop) thr0 i t' thr' :
  thr' = upd i t' thr0 -> P i t' -> (forall j tj, j <> i -> nth_error thr0 j = Some tj -> P j tj) ->
  forall j tj, nth_error thr' j = Some tj -> P j tj.
Proof.
  intros -> Hi Ho j tj Hj. apply nth_error_upd_inv in Hj. destruct Hj as [[-> ->]|[Hne Hj]]; [exact Hi|exact (Ho j tj Hne Hj)].
Qed.

Definition actor (e : ev) : option nat :=
  match e with EStart i | ERel i _ | ECancel i | ETau i _ => Some i | EAdv _ => None end.

Lemma tlog_inv_from (m : mode) (P : cstate -> list sx -> Prop) :
  (forall s lg e s', P s lg -> step m s e = Some s' -> P s' (lg ++ emit m s e)) ->
  forall tr s0 lg0 s, P s0 lg0 -> run m s0 tr = Some s -> P s (lg0 ++ tlog m s0 tr).
Proof.
  intros Hs. induction tr as [|e tr IH]; intros s0 lg0 s H0 H; cbn [run tlog] in *.
  - inversion H; subst. rewrite app_nil_r. exact H0.
  - destruct (step m s0 e) as [s1|] eqn:E; [|discriminate]. rewrite app_assoc.
    apply (IH s1); [apply Hs; assumption|exact H].
Qed.

Theorem tlog_inv (m : mode) (P : cstate -> list sx -> Prop) s0 :
  P s0 [] ->
  (forall s lg e s', P s lg -> step m s e = Some s' -> P s' (lg ++ emit m s e)) ->
  forall tr s, run m s0 tr = Some s -> P s (tlog m s0 tr).
Proof. intros H0 Hs tr s. exact (tlog_inv_from m P Hs tr s0 [] s H0). Qed.

Definition QW (s : cstate) : Prop :=
  NoDup (semq s) /\ forall j tj, In j (semq s) -> nth_error (thr s) j = Some tj -> tpc tj = WaitSem.

Lemma linv_QW lim s : linv lim s -> QW s.
Proof.
  intros [P _]. split; [apply (p_nd _ _ P)|]. intros j tj Hin Hj.
  apply (p_q _ _ P) in Hin. destruct Hin as (tj' & Hj' & Hw). congruence.
Qed.

Lemma notify_frame k : forall fuel s j tj', QW s -> nth_error (thr (notify fuel k s)) j = Some tj' ->
  exists tj, nth_error (thr s) j = Some tj /\
             (tj' = tj \/ (tpc tj = WaitSem /\ tj' = mkthr Granted (todo tj) (cancelled tj) (bset tj))).
Proof.
  induction fuel as [|f IH]; intros s j tj' Q H; cbn [notify] in H; [exists tj'; auto|].
  destruct (semq s) as [|j0 q'] eqn:Eq; [exists tj'; auto|].
  destruct (Nat.ltb (cur s) k); [|exists tj'; auto].
  destruct (nth_error (thr s) j0) as [t0|] eqn:H0; [|exists tj'; auto].
  destruct Q as [N Q]. rewrite Eq in N, Q. inversion N as [|? ? Hn0 Nq]; subst.
  assert (P0 : tpc t0 = WaitSem) by (apply (Q j0 t0); [left; reflexivity|exact H0]).
  apply IH in H.
  - destruct H as (tj & Hj & D). cbn [thr] in Hj. apply nth_error_upd_inv in Hj.
    destruct Hj as [[-> ->]|[Hne Hj]].
    + exists t0. split; [exact H0|]. right. split; [exact P0|].
      destruct D as [->|[X _]]; [reflexivity|discriminate X].
    + exists tj. split; [exact Hj|exact D].
  - split; cbn [semq thr]; [exact Nq|]. intros j1 t1 Hin Hn. apply nth_error_upd_inv in Hn.
    destruct Hn as [[-> _]|[_ Hn]]; [contradiction|]. apply (Q j1 t1); [right; exact Hin|exact Hn].
Qed.

Lemma upd_length {T} i (x : T) l : length (upd i x l) = length l.
Proof. revert i. induction l as [|h t IH]; intros [|i]; cbn; auto. Qed.

Lemma notify_length k : forall fuel s, length (thr (notify fuel k s)) = length (thr s).
Proof.
  induction fuel as [|f IH]; intros s; cbn [notify]; [reflexivity|].
  destruct (semq s) as [|j q']; [reflexivity|]. destruct (Nat.ltb (cur s) k); [|reflexivity].
  destruct (nth_error (thr s) j); [|reflexivity]. rewrite IH. cbn [thr]. apply upd_length.
Qed.

Lemma finish_base_length m i t e k c s : length (thr (finish_base m i t e k c s)) = length (thr s).
Proof.
  destruct m; cbn [finish_base]; unfold sem_release; rewrite ?notify_length; cbn [thr set_thr]; apply upd_length.
Qed.

Lemma begin_base_length m i t ds e k s : length (thr (begin_base m i t ds e k s)) = length (thr s).
Proof.
  unfold begin_base. destruct ds; [rewrite finish_base_length|]; cbn [thr set_thr note_max]; rewrite ?upd_length; reflexivity.
Qed.

Local Opaque notify begin_base finish_base.
Lemma step_length m s e s' : step m s e = Some s' -> length (thr s') = length (thr s).
Proof.
  intros H. destruct e as [i|i f|i|dt|i alt]; cbn [step] in H.
  - destruct (nth_error (thr s) i) as [t|]; [|discriminate]. destruct (tpc t); try discriminate.
    injection H as <-. apply upd_length.
  - destruct (nth_error (thr s) i) as [t|]; [|discriminate]. destruct (tpc t); try discriminate.
    + destruct m; try discriminate. destruct (negb (f =? 0)%Z); [injection H as <-; apply upd_length|].
      destruct (memn k (snk s)); injection H as <-; [apply upd_length|].
      first [apply begin_base_length | cbn [thr set_thr set_pc note_max]; rewrite ?upd_length; reflexivity].
    + injection H as <-. apply upd_length.
    + destruct ((if negb (f =? 0)%Z then f else b) =? 0)%Z.
      * destruct rest; injection H as <-; [rewrite finish_base_length; reflexivity|cbn [thr set_pc set_thr]; apply upd_length].
      * injection H as <-. apply finish_base_length.
  - destruct (nth_error (thr s) i) as [t|]; [|discriminate]. destruct (cancelled t); [discriminate|].
    injection H as <-. apply upd_length.
  - injection H as <-. reflexivity.
  - destruct (nth_error (thr s) i) as [t|]; [|discriminate].
    destruct (tpc t); destruct alt; try discriminate.
    + destruct m.
      * destruct (todo t); [discriminate|]. destruct (lookup_key n (inflight s)); injection H as <-; cbn [thr set_pc set_thr]; apply upd_length.
      * destruct (cancelled t); [injection H as <-; apply upd_length|].
        destruct (_ && _); injection H as <-; [rewrite begin_base_length; reflexivity|cbn [thr set_pc set_thr]; apply upd_length].
      * destruct (ec_remove_existing dur (clk s) (todo t) (qcache s)). injection H as <-. cbn [thr set_pc set_thr]. apply upd_length.
    + destruct (cancelled t); [|discriminate]. injection H as <-. apply upd_length.
    + destruct (nth_error (ents s) e) as [[[] []]|]; try discriminate; injection H as <-; apply upd_length.
    + injection H as <-. cbn [thr set_pc set_thr]. apply upd_length.
    + destruct (c =? 0)%Z; injection H as <-; cbn [thr set_pc set_thr set_ent]; apply upd_length.
    + destruct (cancelled t); [|discriminate]. destruct m; try discriminate. injection H as <-.
      rewrite notify_length. cbn [thr set_pc set_thr]. apply upd_length.
    + destruct m; try discriminate. destruct (cancelled t); injection H as <-.
      * unfold sem_release. rewrite notify_length. cbn [thr set_pc set_thr]. apply upd_length.
      * apply begin_base_length.
    + destruct (cancelled t); [|discriminate]. injection H as <-. apply upd_length.
    + destruct m; try discriminate. destruct (tok s); [|discriminate].
      destruct (ec_remove_existing dur (clk s) (todo t) (qcache s)). injection H as <-. rewrite begin_base_length. reflexivity.
Qed.

Local Transparent notify begin_base finish_base.

Lemma run_length m tr : forall s s', run m s tr = Some s' -> length (thr s') = length (thr s).
Proof.
  intros s s' H. refine (run_inv m (fun x => length (thr x) = length (thr s)) _ tr s s' eq_refl H).
  intros s1 e s2 H1 St. rewrite (step_length _ _ _ _ St). exact H1.
Qed.

Lemma init_length sets source sink : length (thr (init_state sets source sink)) = length sets.
Proof. cbn [init_state thr]. apply map_length. Qed.

Lemma init_thread_at sets source sink j tj : nth_error (thr (init_state sets source sink)) j = Some tj ->
  tj = init_thread (nth j sets []).
Proof.
  cbn [init_state thr]. intros H. rewrite nth_error_map in H. destruct (nth_error sets j) as [ds|] eqn:E; [|discriminate].
  inversion H; subst. f_equal. symmetry. apply nth_error_nth. exact E.
Qed.

(** What clauses 24 / 25 demand of a log. *)
Definition clause24_ok (sets : list (list nat)) (lg : list sx) : Prop :=
  forall i p st, i < length sets -> index_where (is_succ i) lg 0 = Some p -> started_at i lg st ->
    forallb (fun d => justified_after d st lg 0) (nth i sets []) = true.

Definition clause25_ok (dur : N) (sets : list (list nat)) (lg : list sx) : Prop :=
  forall i p st, i < length sets -> index_where (is_succ i) lg 0 = Some p -> started_at i lg st ->
    forallb (fun d => copied_within d dur (tstart_of lg st) lg) (nth i sets []) = true.

Lemma is_succ_caller j x : is_succ j x = true -> lg_caller x = j.
Proof. unfold is_succ. intros H. apply andb_prop in H. destruct H as [H _]. apply andb_prop in H. destruct H as [_ H]. apply Nat.eqb_eq, H. Qed.
Lemma is_start_caller j x : is_start j x = true -> lg_caller x = j.
Proof. unfold is_start. intros H. apply andb_prop in H. destruct H as [_ H]. apply Nat.eqb_eq, H. Qed.
Lemma not_caller_not_start j x : lg_caller x <> j -> is_start j x = false.
Proof. intros H. destruct (is_start j x) eqn:E; [|reflexivity]. apply is_start_caller in E. contradiction. Qed.
Lemma not_caller_not_succ j x : lg_caller x <> j -> is_succ j x = false.
Proof. intros H. destruct (is_succ j x) eqn:E; [|reflexivity]. apply is_succ_caller in E. contradiction. Qed.

Lemma is_succ_done_true i t : is_succ i (ev_done i 0 t) = true.
Proof. unfold is_succ. rewrite caller_done, Nat.eqb_refl. reflexivity. Qed.

Lemma started_new j lg i t rest st : (forall x, In x rest -> is_start j x = false) ->
  started_at j (lg ++ ev_start i t :: rest) st -> started_at j lg st \/ (i = j /\ st = length lg /\ index_where (is_start j) lg 0 = None).
Proof.
  intros Hr H. unfold started_at in *. destruct (index_where (is_start j) lg 0) as [st0|] eqn:E.
  - left. rewrite (iw_app_some _ _ _ _ _ E) in H. exact H.
  - right. rewrite iw_app_none in H by exact E. cbn [index_where Nat.add] in H. rewrite is_start_start in H.
    destruct (Nat.eqb i j) eqn:Eij.
    + apply Nat.eqb_eq in Eij. inversion H. auto.
    + rewrite iw_none in H by exact Hr. discriminate.
Qed.

Lemma tstart_new lg i t rest : tstart_of (lg ++ ev_start i t :: rest) (length lg) = t.
Proof. unfold tstart_of. rewrite app_nth2 by lia. rewrite Nat.sub_diag. cbn [nth]. apply sx_N_of_N. Qed.

Lemma emit_with_caller arr s e s' x :
  (forall i t p y, In y (arr i t p) -> lg_caller y = i) ->
  In x (emit_with arr s e s') -> exists i, actor e = Some i /\ lg_caller x = i.
Proof.
  intros Harr. destruct e as [i|i f|i|dt|i alt]; cbn [emit_with actor]; intros H; try contradiction.
  - exists i. split; [reflexivity|]. destruct H as [<-|H]; [apply caller_start|eapply Harr; exact H].
  - exists i. split; [reflexivity|]. apply in_app_or in H. destruct H as [H|H]; [eapply returned_caller; exact H|eapply Harr; exact H].
  - exists i. split; [reflexivity|]. eapply Harr; exact H.
Qed.

