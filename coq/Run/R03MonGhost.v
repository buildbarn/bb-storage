(** C03, monitor versus model — part 1 (model side).

    Facts about the ghost history of Persist/Shutdown.v ([gstep], [grun]) in the
    form the bookkeeping of the monitor of Run/R03.v is measured against:
      - [gstep_gsh]: how ONE step of any kind can change the three cohorts
        (all acks / acks at the latest NotifySyncStarting / acks of the latest
        completed sync), the pending snapshots and the completed writes;
      - [gstep_acks_same]: only a finalizer changes the set of acks;
      - [psome]: a loop that is inside WritePersistentState has a pending
        snapshot, and it is the snapshot of the state being written
        (the converse of [ShutdownOrder.pend_ok]);
      - [G]: the invariants of every reachable state that the proofs use,
        closed under [grun]. *)
From Coq Require Import List NArith ZArith Bool Arith Lia.
From BBS Require Import Persist.PBL Persist.PBLProofs Persist.Syncer Persist.SyncerProofs
  Persist.Shutdown Persist.ShutdownProofs Persist.ShutdownOrder.
Import ListNotations.

Definition gsh (s : sys) (x x' : gsys) : Prop :=
  (g_syncing (gs_g x') = g_syncing (gs_g x) \/ g_syncing (gs_g x') = g_acks (gs_g x')) /\
  (g_synced (gs_g x') = g_synced (gs_g x) \/ g_synced (gs_g x') = g_syncing (gs_g x)) /\
  (* a new pending snapshot is what GetPersistentState returns on the list of state [s] *)
  (forall t w, get_pend x' t = Some w -> get_pend x t = Some w \/
     (gw_cohort w = g_synced (gs_g x) /\ gw_base_abs w = totalReleased (s_pbl s) /\
      exists p', get_persistent_state (s_pbl s) = Ok (p', gw_state w))) /\
  (forall w, In w (gs_writes x') -> In w (gs_writes x) \/ exists t, get_pend x t = Some w) /\
  (forall w, In w (gs_writes x) -> In w (gs_writes x')).

Lemma gsh_refl s x : gsh s x x.
Proof. unfold gsh. splits; auto. Qed.

Lemma get_pend_with_g x g t : get_pend (gs_with_g x g) t = get_pend x t.
Proof. destruct t; reflexivity. Qed.

Lemma gsh_with_g s x g' :
  (g_syncing g' = g_syncing (gs_g x) \/ g_syncing g' = g_acks g') ->
  (g_synced g' = g_synced (gs_g x) \/ g_synced g' = g_syncing (gs_g x)) ->
  gsh s x (gs_with_g x g').
Proof.
  intros H1 H2. unfold gsh. cbn [gs_with_g gs_g gs_writes]. splits; auto;
  intros t w; rewrite get_pend_with_g; auto.
Qed.

Lemma gsh_intro s x x' : gs_g x' = gs_g x ->
  (forall t w, get_pend x' t = Some w -> get_pend x t = Some w \/
     (gw_cohort w = g_synced (gs_g x) /\ gw_base_abs w = totalReleased (s_pbl s) /\
      exists p', get_persistent_state (s_pbl s) = Ok (p', gw_state w))) ->
  (forall w, In w (gs_writes x') -> In w (gs_writes x) \/ exists t, get_pend x t = Some w) ->
  (forall w, In w (gs_writes x) -> In w (gs_writes x')) -> gsh s x x'.
Proof.
  intros Hg H1 H2 H3. unfold gsh. rewrite Hg. split; [left; reflexivity|]. split; [left; reflexivity|].
  split; [exact H1|]. split; [exact H2|exact H3].
Qed.

Lemma wstep_getstate cfg me a s s1 w' : wstep cfg me WGetState a s = Some (Ok (s1, w')) ->
  exists p' st, get_persistent_state (s_pbl s) = Ok (p', st) /\ w' = Some (WWriting st).
Proof.
  unfold wstep. destruct (get_persistent_state (s_pbl s)) as [[p' st]|] eqn:E; [|discriminate].
  intros [= <-]. eauto.
Qed.

Lemma gsh_gw_step cfg t w a s s1 wn s' x : wstep cfg t w a s = Some (Ok (s1, wn)) -> wpc_of t s' = wn ->
  gsh s x (gw_step t w a s s' x).
Proof.
  intros Ew Hpc. unfold gw_step. destruct w; try apply gsh_refl.
  - (* WGetState: the snapshot recorded as pending is the state the loop goes on to write *)
    destruct (wstep_getstate _ _ _ _ _ _ Ew) as [p' [st [Hg ->]]]. apply gsh_intro.
    + destruct t; reflexivity.
    + intros t0 w0 H. destruct t; cbn [wpc_of] in Hpc.
      * destruct (s_r s') as [| |w1]; try discriminate. injection Hpc as ->.
        destruct t0; cbn in H; [|left; exact H]. injection H as <-. right. cbn. eauto.
      * destruct (s_p s') as [| | | | | | | |k w1|]; try discriminate. injection Hpc as ->.
        destruct t0; cbn in H; [left; exact H|]. injection H as <-. right. cbn. eauto.
    + intros w0 H. left. destruct t; exact H.
    + intros w0 H. destruct t; exact H.
  - (* WWriting *)
    destruct (a_ok a).
    + destruct (get_pend x t) as [w0|] eqn:Ep; [|apply gsh_refl].
      apply gsh_intro.
      * destruct t; reflexivity.
      * intros t0 w1 H. left. destruct t, t0; cbn in H; try discriminate; exact H.
      * intros w1 H. destruct t; cbn in H; (destruct H as [<-|H]; [right; eexists; exact Ep|left; exact H]).
      * intros w1 H. destruct t; cbn; right; exact H.
    + apply gsh_intro.
      * destruct t; reflexivity.
      * intros t0 w1 H. left. destruct t, t0; cbn in H; try discriminate; exact H.
      * intros w1 H. left. destruct t; exact H.
      * intros w1 H. destruct t; exact H.
Qed.

Lemma gstep_gsh cfg s e s' x : step cfg s e = Some (Ok s') -> gsh s x (gstep s e s' x).
Proof.
  intros Hs. destruct e as [alloc| |index size|k blk seed|d| |t a]; cbn [gstep]; try apply gsh_refl.
  - destruct (blocks _); [apply gsh_refl|]. apply gsh_with_g; cbn; auto.
  - destruct (nth_error _ _) as [[[[|abs] sz]|]|]; try apply gsh_refl.
    destruct (put_finalize _ _ _ _ _) as [[p' [off| | |]]|]; try apply gsh_refl.
    destruct (mk_ack _ _ _ _); [|apply gsh_refl]. apply gsh_with_g; cbn; auto.
  - cbn [step] in Hs. destruct t.
    + unfold rstep in Hs. destruct (s_r s); try apply gsh_refl.
      destruct (wstep cfg TR w a s) as [[[s1 wn]|]|] eqn:Ew; try discriminate.
      apply (gsh_gw_step _ _ _ _ _ _ _ _ _ Ew). destruct wn; injection Hs as <-; reflexivity.
    + unfold pstep in Hs.
      destruct (s_p s) as [| | | |keep|keep final|keep final|keep final dl|keep w|]; try apply gsh_refl.
      * apply gsh_with_g; cbn; auto.
      * destruct (negb keep && negb final); apply gsh_with_g; cbn; auto.
      * destruct (wstep cfg TP w a s) as [[[s1 wn]|]|] eqn:Ew; try discriminate.
        apply (gsh_gw_step _ _ _ _ _ _ _ _ _ Ew).
        destruct wn; injection Hs as <-; [reflexivity|destruct keep; reflexivity].
Qed.

Definition notfin (e : event) : Prop := forall k blk seed, e <> EFinalize k blk seed.

Lemma gstep_acks_same s e s' x : notfin e -> g_acks (gs_g (gstep s e s' x)) = g_acks (gs_g x).
Proof.
  intros Hn. destruct e as [alloc| |index size|k blk seed|d| |t a]; cbn [gstep]; try reflexivity.
  - destruct (blocks _); reflexivity.
  - exfalso. eapply Hn. reflexivity.
  - destruct t.
    + destruct (s_r s); try reflexivity. rewrite gw_step_g. reflexivity.
    + destruct (s_p s) as [| | | |keep|keep final|keep final|keep final dl|keep w|]; try reflexivity.
      * destruct (negb keep && negb final); reflexivity.
      * rewrite gw_step_g. reflexivity.
Qed.

Definition psome (s : sys) (x : gsys) : Prop :=
  forall t st, wpc_of t s = Some (WWriting st) -> exists w, get_pend x t = Some w /\ gw_state w = st.

Lemma get_pend_gw_other t t' w a s s' x : t' <> t -> get_pend (gw_step t w a s s' x) t' = get_pend x t'.
Proof.
  intros Hne. unfold gw_step. destruct w; try reflexivity.
  - destruct t, t'; try congruence; reflexivity.
  - destruct (a_ok a); [destruct (get_pend x t)|]; destruct t, t'; try congruence; reflexivity.
Qed.

Lemma same_writes_pend x x' t : same_writes x x' -> get_pend x' t = get_pend x t.
Proof. intros [H1 [H2 _]]. destruct t; cbn; assumption. Qed.

Lemma gw_step_psome cfg t w a s s1 wn s' x st : wstep cfg t w a s = Some (Ok (s1, wn)) -> wpc_of t s' = wn ->
  wpc_of t s' = Some (WWriting st) -> exists w0, get_pend (gw_step t w a s s' x) t = Some w0 /\ gw_state w0 = st.
Proof.
  intros Ew <- Hw. destruct (wstep_store _ _ _ _ _ _ _ Ew) as [_ [_ Hcase]]. rewrite Hw in Hcase.
  destruct w as [| |st0| |dl]; cbn [gw_step].
  - destruct Hcase as [_ [_ E]]. discriminate.
  - destruct t; cbn [wpc_of] in Hw.
    + destruct (s_r s') as [| |w1]; try discriminate. injection Hw as ->. cbn. eauto.
    + destruct (s_p s') as [| | | | | | | |k w1|]; try discriminate. injection Hw as ->. cbn. eauto.
  - destruct Hcase as [[_ E]|[_ [dl E]]]; discriminate.
  - destruct Hcase as [_ E]. discriminate.
  - destruct Hcase as [_ E]. discriminate.
Qed.

Lemma step_psome cfg s e s' x : inv1 s -> psome s x -> step cfg s e = Some (Ok s') -> psome s' (gstep s e s' x).
Proof.
  intros I1 P Hs.
  (* a loop whose pc and pending snapshot the step leaves alone *)
  assert (Hkeep : forall t, wpc_of t s' = wpc_of t s -> get_pend (gstep s e s' x) t = get_pend x t ->
            forall st, wpc_of t s' = Some (WWriting st) ->
            exists w, get_pend (gstep s e s' x) t = Some w /\ gw_state w = st).
  { intros t E1 E2 st Hw. rewrite E2. apply P. rewrite <- E1. exact Hw. }
  assert (Henv : (forall t a, e <> EStep t a) -> psome s' (gstep s e s' x)).
  { intros Hne t. destruct (env_frame _ _ _ _ Hne Hs) as [Hr Hp]. apply Hkeep.
    - destruct t; unfold wpc_of; [rewrite Hr|rewrite Hp]; reflexivity.
    - apply same_writes_pend, gstep_frame. intros t0 a0 E. destruct (Hne _ _ E). }
  destruct e as [alloc| |index size|k blk seed|d| |t a]; try (apply Henv; intros; discriminate).
  clear Henv. cbn [step] in Hs. intros t'. destruct t, t'.
  - (* the release loop steps: itself *)
    unfold rstep in Hs. cbn [gstep]. destruct (s_r s) as [|ch|w].
    + injection Hs as <-. intros st Hw. discriminate Hw.
    + destruct (is_closed _ _); [|discriminate]. injection Hs as <-. intros st Hw. discriminate Hw.
    + destruct (wstep cfg TR w a s) as [[[s1 wn]|]|] eqn:Ew; try discriminate.
      intros st. apply (gw_step_psome _ _ _ _ _ _ _ _ _ _ Ew). destruct wn; injection Hs as <-; reflexivity.
  - (* ... and the put loop *)
    apply Hkeep.
    + unfold wpc_of. rewrite (rstep_frame _ _ _ _ I1 Hs). reflexivity.
    + cbn [gstep]. destruct (s_r s); try reflexivity. apply get_pend_gw_other. discriminate.
  - (* the put loop steps: the release loop *)
    apply Hkeep.
    + unfold wpc_of. rewrite (pstep_frame _ _ _ _ I1 Hs). reflexivity.
    + cbn [gstep]. destruct (s_p s) as [| | | |keep|keep final|keep final|keep final dl|keep w|]; try reflexivity.
      * destruct (negb keep && negb final); reflexivity.
      * apply get_pend_gw_other. discriminate.
  - (* ... and itself: outside writePersistentStateRetrying no step ends in WritePersistentState *)
    unfold pstep in Hs. cbn [gstep].
    destruct (s_p s) as [|ch0|ch0|dl|keep|keep final|keep final|keep final dl|keep w|].
    + injection Hs as <-. intros st Hw. discriminate Hw.
    + destruct (is_closed _ _); injection Hs as <-; intros st Hw; discriminate Hw.
    + destruct (s_cancel s && _); [|destruct (is_closed _ _); [|discriminate]]; injection Hs as <-; intros st Hw; discriminate Hw.
    + destruct (s_cancel s && _); [|destruct (_ && _)%bool; [|discriminate]]; injection Hs as <-; intros st Hw; discriminate Hw.
    + injection Hs as <-. intros st Hw. discriminate Hw.
    + destruct (a_ok a); injection Hs as <-; intros st Hw; discriminate Hw.
    + destruct (negb keep && negb final); injection Hs as <-; intros st Hw; discriminate Hw.
    + destruct (_ <=? _)%N; [|discriminate]. injection Hs as <-. intros st Hw. discriminate Hw.
    + destruct (wstep cfg TP w a s) as [[[s1 wn]|]|] eqn:Ew; try discriminate.
      intros st. apply (gw_step_psome _ _ _ _ _ _ _ _ _ _ Ew).
      destruct wn; injection Hs as <-; [reflexivity|destruct keep; reflexivity].
    + discriminate.
Qed.

Definition G (o : N) (s : sys) (x : gsys) : Prop := sinv3 o s x /\ psome s x.

Lemma G_step o cfg s e s' x : G o s x -> step cfg s e = Some (Ok s') -> G o s' (gstep s e s' x).
Proof.
  intros [S P] Hs. split.
  - eapply (grun_sinv3 o cfg [e]); [exact S|]. cbn. rewrite Hs. reflexivity.
  - destruct S as [[[I1 _] _] _]. eapply step_psome; eauto.
Qed.

Lemma G_init alloc oldest init t0 : G oldest (init_sys (fst (pbl_new alloc oldest init)) t0) g0.
Proof. split; [apply init_sinv3|]. intros [|] st H; cbn in H; discriminate. Qed.

(** a multi-step relation with the ghost, every (state, event) satisfying [P] *)
Inductive gpath (cfg : config) (P : sys -> event -> Prop) : sys -> gsys -> sys -> gsys -> Prop :=
| gp_nil s x : gpath cfg P s x s x
| gp_cons s x e s1 s' x' : P s e -> step cfg s e = Some (Ok s1) -> gpath cfg P s1 (gstep s e s1 x) s' x' ->
    gpath cfg P s x s' x'.

Lemma gpath_trans cfg P s x s1 x1 s2 x2 : gpath cfg P s x s1 x1 -> gpath cfg P s1 x1 s2 x2 -> gpath cfg P s x s2 x2.
Proof. induction 1; intros H2; [exact H2|]. econstructor; eauto. Qed.

Lemma gpath_one cfg (P : sys -> event -> Prop) s x e s1 : P s e -> step cfg s e = Some (Ok s1) ->
  gpath cfg P s x s1 (gstep s e s1 x).
Proof. intros. econstructor; eauto. constructor. Qed.

Lemma gpath_weaken cfg (P Q : sys -> event -> Prop) s x s' x' : (forall s e, P s e -> Q s e) ->
  gpath cfg P s x s' x' -> gpath cfg Q s x s' x'.
Proof. intros HPQ. induction 1; [constructor|]. econstructor; eauto. Qed.

Lemma gpath_grun cfg P s x s' x' : gpath cfg P s x s' x' -> exists tr, grun cfg s x tr = Some (Ok (s', x')).
Proof.
  induction 1 as [s x|s x e s1 s' x' _ Hs _ [tr IH]]; [exists []; reflexivity|].
  exists (e :: tr). cbn. rewrite Hs. exact IH.
Qed.

Lemma grun_app cfg tr1 : forall tr2 s x s1 x1, grun cfg s x tr1 = Some (Ok (s1, x1)) ->
  grun cfg s x (tr1 ++ tr2) = grun cfg s1 x1 tr2.
Proof.
  induction tr1 as [|e tr1 IH]; intros tr2 s x s1 x1 H; cbn in *.
  - injection H as <- <-. reflexivity.
  - destruct (step cfg s e) as [[s0|]|]; try discriminate. apply IH. exact H.
Qed.

Lemma greachable_gpath cfg alloc oldest init t0 P s x s' x' :
  greachable cfg alloc oldest init t0 s x -> gpath cfg P s x s' x' -> greachable cfg alloc oldest init t0 s' x'.
Proof.
  intros [tr1 H1] Hp. destruct (gpath_grun _ _ _ _ _ _ Hp) as [tr2 H2].
  exists (tr1 ++ tr2). rewrite (grun_app _ _ _ _ _ _ _ H1). exact H2.
Qed.

Lemma G_gpath o cfg P s x s' x' : G o s x -> gpath cfg P s x s' x' -> G o s' x'.
Proof. intros Hg Hp. induction Hp; [exact Hg|]. apply IHHp. eapply G_step; eauto. Qed.

Lemma graceful_G o s x : G o s x -> s_p s = PExit ->
  exists w rest, gs_writes x = w :: rest /\ gw_cohort w = g_acks (gs_g x) /\
                 forall a, In a (g_acks (gs_g x)) -> covers w a.
Proof.
  intros [[[[_ [_ W]] [_ [F P]]] _] _] Hp.
  unfold pcinv in P. rewrite Hp in P. specialize (F P). rewrite Hp in F.
  destruct F as [_ [_ [[w [rest [Hw Ha]]] _]]]. exists w, rest. splits; auto.
  intros a Hin. destruct W as [W _]. rewrite Hw in W. apply Forall_inv in W. destruct W as [C _].
  rewrite Forall_forall in C. apply C. unfold all_acked in Ha. rewrite Ha. exact Hin.
Qed.

Lemma crash_covers_G o s x : G o s x ->
  forall w, In w (gs_writes x) -> gw_cohort w = g_acks (gs_g x) ->
  exists w0 rest, gs_writes x = w0 :: rest /\ gw_cohort w0 = g_acks (gs_g x) /\
                  forall a, In a (g_acks (gs_g x)) -> covers w0 a.
Proof.
  intros [[[[_ [_ W]] _] [C1 [C2 [C3 _]]]] _] w Hin Hall.
  destruct (gs_writes x) as [|w0 rest] eqn:Ew; [destruct Hin|]. exists w0, rest. split; [reflexivity|].
  assert (Htop : suffix (gw_cohort w0) (g_acks (gs_g x))).
  { destruct C3 as [C3 _]. eapply suffix_trans; [exact C3|]. eapply suffix_trans; eauto. }
  assert (Hfull : gw_cohort w0 = g_acks (gs_g x)).
  { apply suffix_full; [exact Htop|]. destruct Hin as [->|Hin]; [rewrite Hall; lia|].
    destruct C3 as [_ C3]. pose proof (chain_in _ _ _ C3 Hin) as Hs. apply suffix_length in Hs.
    rewrite Hall in Hs. exact Hs. }
  split; [exact Hfull|]. intros a Ha. destruct W as [W _]. rewrite Ew in W. apply Forall_inv in W. destruct W as [C _].
  rewrite Forall_forall in C. apply C. rewrite Hfull. exact Ha.
Qed.

(** steps that complete no state write: the list of completed writes is unchanged *)
Definition nowr (s : sys) (e : event) : Prop :=
  forall t a st, e = EStep t a -> wpc_of t s = Some (WWriting st) -> a_ok a = false.

Lemma gstep_writes_same s e s' x : nowr s e -> gs_writes (gstep s e s' x) = gs_writes x.
Proof.
  intros Hn. destruct e as [alloc| |index size|k blk seed|d| |t a]; cbn [gstep]; try reflexivity.
  - destruct (blocks _); reflexivity.
  - destruct (nth_error _ _) as [[[[|abs] sz]|]|]; try reflexivity.
    destruct (put_finalize _ _ _ _ _) as [[p' [off| | |]]|]; try reflexivity.
    destruct (mk_ack _ _ _ _); reflexivity.
  - assert (Hw : forall w, wpc_of t s = Some w -> gs_writes (gw_step t w a s s' x) = gs_writes x).
    { intros w Hw. unfold gw_step. destruct w as [| |st| |]; try reflexivity.
      - destruct t; reflexivity.
      - rewrite (Hn t a st eq_refl Hw). destruct t; reflexivity. }
    destruct t; cbn [wpc_of] in Hw.
    + destruct (s_r s); try reflexivity. apply Hw. reflexivity.
    + destruct (s_p s) as [| | | |keep|keep final|keep final|keep final dl|keep w|]; try reflexivity.
      * destruct (negb keep && negb final); reflexivity.
      * apply Hw. reflexivity.
Qed.

Lemma gpath_writes_same cfg s x s' x' : gpath cfg nowr s x s' x' -> gs_writes x' = gs_writes x.
Proof. induction 1 as [|s x e s1 s' x' Hn Hs Hp IH]; [reflexivity|]. rewrite IH. apply gstep_writes_same. exact Hn. Qed.

Lemma step_closed_mono cfg s e s' : step cfg s e = Some (Ok s') ->
  closedForWriting (s_pbl s) = true -> closedForWriting (s_pbl s') = true.
Proof. intros Hs C. destruct (step_closed _ _ _ _ Hs) as [E|[E _]]; congruence. Qed.

Lemma step_pexit cfg s e s' : inv1 s -> step cfg s e = Some (Ok s') -> s_p s = PExit -> s_p s' = PExit.
Proof.
  intros I1 Hs Hp. destruct e as [alloc| |index size|k blk seed|d| |t a].
  1-6: (destruct (env_shape cfg s _ s' Hs eq_refl) as [p1 [n1 [c1 [u1 [-> _]]]]]; exact Hp).
  destruct t; cbn [step] in Hs.
  - rewrite (rstep_frame _ _ _ _ I1 Hs). exact Hp.
  - unfold pstep in Hs. rewrite Hp in Hs. discriminate.
Qed.
