(** C07, "the monitor is silent on the model" — last part: the state after
    construction, the induction over the operation list, and the theorems
    about [mon07 inp (run07h inp hints)] for every input and every hint
    list. *)
From Coq Require Import List NArith ZArith Bool Arith Lia.
From BBS Require Import Common.Sx Persist.PBL Persist.PBLProofs Persist.Syncer Persist.SyncerProofs
  Persist.LiveActs Persist.LiveCover Persist.LiveRelease Run.R07 Run.R07MonBase Run.R07MonOps Run.R07MonC123
  Run.R07MonCov1 Run.R07MonCov2 Run.R07MonOps2 Run.R07MonCov3 Run.R07MonC5.
Import ListNotations.
Local Open Scope nat_scope.

Definition cfg_i (inp : sx) : config := cfg_of (sx_nth inp 0).
Definition inits_i (inp : sx) : list (bstate * bool) := map dec_init (sx_list (sx_nth (sx_nth inp 0) 4)).
Definition alloc_i (inp : sx) : loc -> Z -> bool := alloc_at_of (inits_i inp).
Definition oldest_i (inp : sx) : N := sx_N (sx_nth (sx_nth inp 0) 3).
Definition init_i (inp : sx) : list bstate := map fst (inits_i inp).
Definition t0_i (inp : sx) : N := sx_N (sx_nth (sx_nth inp 0) 2).
Definition p0_i (inp : sx) : pbl := fst (pbl_new (alloc_i inp) (oldest_i inp) (init_i inp)).

Lemma init_x_eq inp : init_x (sx_nth inp 0) = mkX (init_sys (p0_i inp) (t0_i inp)) 0 0 [] 0 0.
Proof.
  unfold init_x, p0_i, alloc_i, oldest_i, init_i, inits_i, t0_i.
  destruct (pbl_new _ _ _) as [p n]. reflexivity.
Qed.

Lemma p0_facts alloc o init :
  let p := fst (pbl_new alloc o init) in
  toRelease p = [] /\ synchronizedEpochs p = length (epochSeeds p) /\ releasedLog p = [] /\ totalReleased p = 0.
Proof.
  unfold pbl_new. destruct (restore_blocks alloc init 0) as [[bl seeds] lasts]. cbn. auto.
Qed.

Lemma run_ops_marker cfg ops hints x r : run_ops cfg ops hints x = Ok r -> is_marker (L r) = false.
Proof.
  destruct ops as [|op ops]; cbn [run_ops].
  - intros H; inversion H; reflexivity.
  - destruct (do_op cfg op x) as [[x1 res]|]; [|discriminate].
    destruct (quiesce cfg 64 _ x1) as [x2|]; [|discriminate].
    destruct (run_ops cfg ops (tl hints) x2) as [r'|]; [|discriminate].
    intros H; inversion H; subst. destruct r'; reflexivity.
Qed.

Section Top.
Variable inp : sx.
Notation cfg := (cfg_i inp).
Notation good := (good (cfg_i inp) (alloc_i inp) (oldest_i inp) (init_i inp) (t0_i inp)).
Notation rel1 := (rel1 (cfg_i inp) (alloc_i inp) (oldest_i inp) (init_i inp) (t0_i inp)).

Record initp (x : xst) : Prop := mkInitp {
  ip_pbl : s_pbl (x_sys x) = p0_i inp;
  ip_cancel : s_cancel (x_sys x) = false;
  ip_nsy : x_nsy x = 0;
  ip_nwr : x_nwr x = 0;
  ip_last : s_last (x_sys x) = t0_i inp;
  ip_now : s_now (x_sys x) = t0_i inp;
  ip_p : s_p (x_sys x) = PStart \/ s_p (x_sys x) = PSelect (get_put_wakeup (p0_i inp))
         \/ s_p (x_sys x) = PIdle (get_put_wakeup (p0_i inp));
  ip_r : s_r (x_sys x) = RStart \/ s_r (x_sys x) = RWait (get_release_wakeup (p0_i inp));
  ip_upl : s_uploads (x_sys x) = [];
  ip_blk : x_blk x = [] /\ x_nalloc x = 0
}.

Lemma p0_open : put_chan_closed (p0_i inp) = false /\ release_chan_closed (p0_i inp) = false.
Proof.
  destruct (p0_facts (alloc_i inp) (oldest_i inp) (init_i inp)) as [F1 [F2 _]].
  pose proof (pbl_new_inv (alloc_i inp) (oldest_i inp) (init_i inp)) as I.
  split; [apply inv_put_open|apply inv_release_open]; auto.
Qed.

Lemma initp_step x t x' : initp x -> tstep cfg t internal_ans x = Some (Ok x') -> initp x'.
Proof.
  intros [P1 P2 P3 P3' P4 P5 P6 P7 P8 [P9 P10]] Ht. destruct (tstep_ok _ _ _ _ _ Ht) as [Hs [[Hc1 [_ Hc3]] [Hwr Hsy]]].
  assert (P9' : x_blk x' = [] /\ x_nalloc x' = 0) by (split; congruence).
  destruct p0_open as [Op Or]. unfold put_chan_closed in Op. unfold release_chan_closed in Or.
  destruct t; cbn [step] in Hs.
  - unfold rstep in Hs. unfold at_getstate in Hwr. destruct P7 as [Er|Er]; rewrite Er in Hs, Hwr.
    + injection Hs as Hs. constructor; try rewrite <- Hs; cbn; auto; try congruence.
      right. rewrite P1. reflexivity.
    + rewrite P1, Or in Hs. discriminate.
  - unfold pstep in Hs. unfold at_getstate in Hwr. destruct P6 as [Ep|[Ep|Ep]]; rewrite Ep in Hs, Hwr.
    + injection Hs as Hs. constructor; try rewrite <- Hs; cbn; auto; try congruence.
      * rewrite Hsy, <- Hs. cbn. exact P3.
      * right. left. rewrite P1. reflexivity.
    + rewrite P1, Op in Hs. injection Hs as Hs. constructor; try rewrite <- Hs; cbn; auto; try congruence.
      rewrite Hsy, <- Hs. cbn. exact P3.
    + rewrite P2, P1, Op in Hs. cbn in Hs. discriminate.
Qed.

Definition m0_i : mst :=
  mkM 0 (t0_i inp) (restored_locs (inits_i inp)) [] [] [] 0 0 false None 0 None None (L []) (t0_i inp)
      false false [].

Lemma init_good : good (init_sys (p0_i inp) (t0_i inp)).
Proof.
  split; [apply reachable_init|]. split; [|exact I].
  destruct (p0_facts (alloc_i inp) (oldest_i inp) (init_i inp)) as [F1 [_ [F3 F4]]].
  unfold relc. cbn. fold (p0_i inp). unfold p0_i. rewrite F1, F3, F4. reflexivity.
Qed.

Lemma init_state rw : exists x0, quiesce cfg 64 rw (init_x (sx_nth inp 0)) = Ok x0 /\ rel1 m0_i x0 /\ initp x0.
Proof.
  rewrite init_x_eq. set (xi := mkX (init_sys (p0_i inp) (t0_i inp)) 0 0 [] 0 0).
  assert (G : good (x_sys xi)) by apply init_good.
  destruct (quiesce_total _ _ _ _ _ rw xi G) as [x0 [Hq [G0 Q0]]].
  exists x0. split; [exact Hq|].
  assert (Pi : initp xi) by (constructor; cbn; auto).
  destruct (quiesce_ind _ _ _ _ _ initp (fun x t x' P _ _ Ht => initp_step x t x' P Ht) 64 rw xi x0 G Pi Hq) as [P0 _].
  split; [|exact P0].
  destruct P0 as [P1 P2 P3 P3' P4 P5 P6 P7 P8 P9].
  constructor; cbn; auto; try congruence.
  - destruct P6 as [E|[E|E]]; rewrite E; reflexivity.
  - destruct P6 as [E|[E|E]]; rewrite E; discriminate.
  - lia.
Qed.

Lemma v5_only m op o po k : In k (ms_v5 m op o po) -> k = 5%Z.
Proof. unfold ms_v5. destruct (_ && _)%bool; [intros [H|[]]; auto|intros []]. Qed.

Lemma v46_only m op o k : In k (ms_v46 m op o) -> k = 4%Z \/ k = 6%Z.
Proof.
  unfold ms_v46. destruct (ms_write_ok op o); [|intros []]. destruct (m_cur m); [|intros []].
  apply check_write_46.
Qed.

Lemma run_sim (R : nat -> mst -> xst -> Prop) (allowed : Z -> Prop) :
  (forall n m x, R n m x -> good (x_sys x)) ->
  (forall n m x op h x1 res x2, R (S n) m x -> tri cfg op x x1 res -> do_op cfg op x = Ok (x1, res) ->
     quiesce cfg 64 h x1 = Ok x2 ->
     R n (mon_step (c_interval cfg) m op (enc_obs res x2)) x2
     /\ Forall allowed (ms_viol (c_interval cfg) m op (enc_obs res x2))) ->
  forall ops hints x m, R (length ops) m x -> Forall allowed (m_viol m) ->
  exists r, run_ops cfg ops hints x = Ok r /\ Forall allowed (m_viol (mon_run (c_interval cfg) m ops r)).
Proof.
  intros HG Hstep. induction ops as [|op ops IH]; intros hints x m HR V.
  - exists []. split; [reflexivity|exact V].
  - cbn [run_ops]. cbv zeta. cbn [length] in HR. pose proof (HG _ _ _ HR) as G.
    destruct (do_op_tri _ _ _ _ _ op x G) as [x1 [res [Hd T]]]. rewrite Hd.
    pose proof (tri_good _ _ _ _ _ _ _ _ _ G T) as G1.
    match goal with |- context [quiesce ?c 64 ?h x1] =>
      destruct (quiesce_total _ _ _ _ _ h x1 G1) as [x2 [Hq _]]; rewrite Hq;
      destruct (Hstep _ m x op h x1 res x2 HR T Hd Hq) as [R2 V2] end.
    destruct (IH (tl hints) x2 _ R2) as [r [Hr Hv]].
    { rewrite mon_step_eq. cbn [m_viol]. apply Forall_app. split; assumption. }
    rewrite Hr. eexists. split; [reflexivity|]. exact Hv.
Qed.

Lemma mon07_sim (R : nat -> mst -> xst -> Prop) (allowed : Z -> Prop) :
  (forall n m x, R n m x -> good (x_sys x)) ->
  (forall n m x op h x1 res x2, R (S n) m x -> tri cfg op x x1 res -> do_op cfg op x = Ok (x1, res) ->
     quiesce cfg 64 h x1 = Ok x2 ->
     R n (mon_step (c_interval cfg) m op (enc_obs res x2)) x2
     /\ Forall allowed (ms_viol (c_interval cfg) m op (enc_obs res x2))) ->
  (forall x0, quiesce cfg 64 true (init_x (sx_nth inp 0)) = Ok x0 -> rel1 m0_i x0 -> initp x0 ->
     R (length (sx_list (sx_nth inp 1))) m0_i x0) ->
  forall hints k, In k (mon07 inp (run07h inp hints)) -> allowed k.
Proof.
  intros HG Hstep Hinit hints k. unfold run07h. change (cfg_of (sx_nth inp 0)) with cfg.
  destruct (init_state true) as [x0 [Hq [R0 P0]]]. rewrite Hq.
  destruct (run_sim R allowed HG Hstep (sx_list (sx_nth inp 1)) hints x0 m0_i (Hinit x0 Hq R0 P0) (Forall_nil _))
    as [r [Hr Hv]].
  rewrite Hr. unfold mon07. rewrite (run_ops_marker _ _ _ _ _ Hr).
  intros Hk. apply dedupz_in in Hk. rewrite Forall_forall in Hv. apply Hv. exact Hk.
Qed.

(** Clauses 1, 2 and 3 never fire on the model, whatever the input and the
    hints: the only clause numbers the monitor can report on the model's own
    observation are 4, 5 and 6. *)
Theorem mon07_clauses_123_silent hints k :
  In k (mon07 inp (run07h inp hints)) -> k = 4%Z \/ k = 5%Z \/ k = 6%Z.
Proof.
  apply (mon07_sim (fun _ => rel1) (fun k => k = 4%Z \/ k = 5%Z \/ k = 6%Z)).
  - intros _ m x. apply r1_good.
  - intros n m x op h x1 res x2 R T _ Hq.
    destruct (rel1_step _ _ _ _ _ m x op h x1 res x2 R T Hq) as [R2 [V2 V1]].
    split; [exact R2|]. unfold ms_viol. rewrite V2, V1. cbn [app].
    apply Forall_app. split; apply Forall_forall; intros k' Hk.
    + destruct (v46_only _ _ _ _ Hk); auto.
    + right. left. eapply v5_only; eauto.
  - auto.
Qed.


Fixpoint nodupz (l : list Z) : bool :=
  match l with
  | [] => true
  | x :: r => negb (zmem x r) && nodupz r
  end.

Lemma nodupz_spec l : nodupz l = true -> NoDup l.
Proof.
  induction l as [|x r IH]; cbn; [constructor|]. intros H. apply andb_true_iff in H. destruct H as [H1 H2].
  constructor; [|auto]. intros Hi. apply zmem_in in Hi. rewrite Hi in H1. discriminate.
Qed.

Definition init_offs : list Z := map (fun e : bstate * bool => fst (bs_loc (fst e))) (inits_i inp).
Definition init_nseeds : nat := fold_right (fun e a => length (bs_seeds (fst e)) + a) 0 (inits_i inp).

(** The initial blocks have pairwise distinct offsets below 10000 (the fake
    allocator hands out 10000 + 100 n), and the number of epochs that can ever
    exist (restored ones + one per operation) stays below 2^32 (epoch IDs are
    uint32: with 2^32 live epochs the IDs wrap and the monitor's epoch distance
    is ambiguous). *)
Definition dom07 : bool :=
  nodupz init_offs && forallb (fun z => (z <? 10000)%Z) init_offs
  && (N.of_nat (init_nseeds + length (sx_list (sx_nth inp 1))) <? 2 ^ 32)%N.

Lemma find_unique {A} (g : A -> Z) (p : A -> bool) l a : NoDup (map g l) -> In a l ->
  (forall e, p e = true -> g e = g a) -> p a = true -> find p l = Some a.
Proof.
  induction l as [|x r IH]; intros Hn Hi Hp Ha; [destruct Hi|]. cbn [find]. cbn [map] in Hn. inversion Hn; subst.
  destruct (p x) eqn:Ex.
  - destruct Hi as [->|Hi]; [reflexivity|]. exfalso. apply H1. rewrite (Hp _ Ex). apply in_map. exact Hi.
  - destruct Hi as [->|Hi]; [congruence|]. apply IH; auto.
Qed.

Lemma restore_offs pre suf n : NoDup (map (fun e : bstate * bool => fst (bs_loc (fst e))) (pre ++ suf)) ->
  map (fun b => fst (b_loc b)) (fst (fst (restore_blocks (alloc_at_of (pre ++ suf)) (map fst suf) n))) = restored_locs suf
  /\ length (snd (fst (restore_blocks (alloc_at_of (pre ++ suf)) (map fst suf) n)))
     <= fold_right (fun e a => length (bs_seeds (fst e)) + a) 0 suf.
Proof.
  revert pre n. induction suf as [|[b f] suf IH]; intros pre n Hn; [cbn; auto|].
  cbn [map fst restore_blocks restored_locs fold_right].
  assert (alloc_at_of (pre ++ (b, f) :: suf) (bs_loc b) (bs_off b) = f) as ->.
  { unfold alloc_at_of. erewrite (find_unique (fun e : bstate * bool => fst (bs_loc (fst e))) _ _ (b, f) Hn); [reflexivity| | |].
    - apply in_or_app. right. left. reflexivity.
    - intros e He. unfold loc_eqb in He. apply andb_true_iff in He. destruct He as [He _]. apply Z.eqb_eq in He. exact He.
    - unfold loc_eqb. cbn. rewrite !Z.eqb_refl. reflexivity. }
  destruct f; [|cbn; split; [reflexivity|lia]].
  specialize (IH (pre ++ [(b, true)]) (S n)). rewrite <- app_assoc in IH. cbn [app] in IH. specialize (IH Hn).
  destruct (restore_blocks _ (map fst suf) (S n)) as [[bl seeds] lasts]. cbn [fst snd] in *.
  destruct IH as [IH1 IH2]. cbn [map b_loc]. rewrite IH1. split; [reflexivity|]. rewrite app_length. lia.
Qed.

Lemma restored_sub l : incl (restored_locs l) (map (fun e : bstate * bool => fst (bs_loc (fst e))) l)
  /\ (NoDup (map (fun e : bstate * bool => fst (bs_loc (fst e))) l) -> NoDup (restored_locs l)).
Proof.
  induction l as [|[b f] r [IH1 IH2]]; cbn [restored_locs map]; [split; [intros x []|constructor]|].
  destruct f.
  - split.
    + intros x [Hx|Hx]; [left; exact Hx|right; apply IH1; exact Hx].
    + intros Hn. inversion Hn; subst. constructor; [|auto]. intros Hi. apply H1. apply IH1. exact Hi.
  - split; [intros x []|constructor].
Qed.

Notation rel2 := (rel2 (cfg_i inp) (alloc_i inp) (oldest_i inp) (init_i inp) (t0_i inp)).

Lemma init_rel2 rw x0 : dom07 = true -> quiesce cfg 64 rw (init_x (sx_nth inp 0)) = Ok x0 -> rel1 m0_i x0 -> initp x0 ->
  rel2 (length (sx_list (sx_nth inp 1))) m0_i x0.
Proof.
  intros Hd Hq R1 [P1 P2 P3 P3' P4 P5 P6 P7 P8 [P9 P10]].
  unfold dom07 in Hd. apply andb_true_iff in Hd. destruct Hd as [Hd Hd3]. apply andb_true_iff in Hd. destruct Hd as [Hd1 Hd2].
  apply nodupz_spec in Hd1. apply N.ltb_lt in Hd3.
  pose proof (restore_offs [] (inits_i inp) 0 Hd1) as [Ho Hs]. cbn [app] in Ho, Hs.
  destruct (p0_facts (alloc_i inp) (oldest_i inp) (init_i inp)) as [F1 [F2 [F3 F4]]].
  assert (Eoffs : offs (p0_i inp) = restored_locs (inits_i inp) /\ length (epochSeeds (p0_i inp)) <= init_nseeds).
  { unfold p0_i, pbl_new, alloc_i, init_i in *. unfold offs.
    destruct (restore_blocks (alloc_at_of (inits_i inp)) (map fst (inits_i inp)) 0) as [[bl seeds] lasts]. cbn in *. auto. }
  destruct Eoffs as [Eoffs Eseeds].
  destruct (restored_sub (inits_i inp)) as [Hsub Hnd].
  constructor.
  - exact R1.
  - exists []. unfold covx. rewrite P1, P8, P9, P10. cbn [m0_i m_step m_last_ok_start m_series_start m_blocks m_popped m_upl m_acks].
    constructor; cbn [app].
    + symmetry. exact Eoffs.
    + symmetry. exact F4.
    + apply Hnd. exact Hd1.
    + rewrite Forall_forall. intros z Hz. left. apply Hsub in Hz. rewrite forallb_forall in Hd2.
      apply Z.ltb_lt. apply Hd2. exact Hz.
    + auto.
    + intros k abs size Hk. destruct k; discriminate.
    + constructor.
    + constructor.
  - cbn. split; [lia|intros j Hj; discriminate].
  - cbn. congruence.
  - exists 0. split.
    + rewrite P1. unfold M32. change (2 ^ 32)%N with 4294967296%N in *. lia.
    + intros t st Hw. exfalso. destruct t; cbn [written_state] in Hw.
      * destruct P7 as [E|E]; rewrite E in Hw; discriminate.
      * destruct P6 as [E|[E|E]]; rewrite E in Hw; discriminate.
Qed.

Lemma init_rel5 x0 : initp x0 -> rel5 m0_i x0.
Proof.
  intros [P1 P2 P3 P3' P4 P5 P6 P7 P8 P9]. constructor.
  - unfold pX. destruct P6 as [E|[E|E]]; rewrite E; exact I.
  - exists None. cbn. splits; auto.
    + intros k [].
    + intros j Hj. discriminate.
    + intros w Hw. discriminate.
Qed.

(** The monitor is silent on the model: no clause of [mon07] fires on the
    model's own observation, for every input of the domain and every hint
    list (the hints only pick the winner of a storeLock tie). *)
Theorem mon07_silent_on_model_h hints : dom07 = true -> mon07 inp (run07h inp hints) = [].
Proof.
  intros Hd. destruct (mon07 inp (run07h inp hints)) as [|k l] eqn:E; [reflexivity|exfalso].
  apply (mon07_sim (fun n m x => rel2 n m x /\ rel5 m x) (fun _ => False)) with (hints := hints) (k := k).
  - intros n m x [R _]. exact (r1_good _ _ _ _ _ _ _ (r2_1 _ _ _ _ _ _ _ _ R)).
  - intros n m x op h x1 res x2 [R R5] T Hdo Hq.
    destruct (rel1_step _ _ _ _ _ m x op h x1 res x2 (r2_1 _ _ _ _ _ _ _ _ R) T Hq) as [_ [V2 V1]].
    destruct (rel2_step _ _ _ _ _ n m x op h x1 res x2 R T Hdo Hq) as [R2 V46].
    destruct (rel5_step _ _ _ _ _ n m x op h x1 res x2 R R5 T Hq R2) as [R5' V5].
    split; [split; assumption|]. unfold ms_viol. rewrite V2, V1, V46, V5. constructor.
  - intros x0 Hq R0 P0. split; [exact (init_rel2 true x0 Hd Hq R0 P0)|exact (init_rel5 x0 P0)].
  - rewrite E. left. reflexivity.
Qed.

(** Clauses 1, 2, 3, 4 and 6 never fire on the model. *)
Theorem mon07_clauses_12346_silent hints k : dom07 = true ->
  In k (mon07 inp (run07h inp hints)) -> k = 5%Z.
Proof. intros Hd. rewrite (mon07_silent_on_model_h hints Hd). intros []. Qed.

Theorem mon07_silent_on_model_ : dom07 = true -> mon07 inp (run07 inp) = [].
Proof. apply mon07_silent_on_model_h. Qed.

End Top.
