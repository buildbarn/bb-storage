(** C14: sx interface of the RPC models (decoders, run, monitor, judge).

    Input shapes are described in harness/c14.go.  The observation is
    [(oracle result)]: the oracle carries what the real zstd library answers
    for every message prefix of a compressed upload; the model takes it as its
    [decompress] argument.  The hash function argument is "index of the byte
    string among the case's blobs" (the harness uses MD5 of the same blobs). *)
From BBS Require Import Common.Sx Rpc.ByteStream Rpc.Batch Rpc.ClientServer.

(** ** Generic helpers *)
Fixpoint bytes_eqb (a b : bytes) : bool :=
  match a, b with
  | [], [] => true
  | x :: a', y :: b' => (x =? y) && bytes_eqb a' b'
  | _, _ => false
  end.

Fixpoint index_of (x : bytes) (l : list bytes) (i : Z) : Z :=
  match l with
  | [] => 0
  | y :: l' => if bytes_eqb x y then i else index_of x l' (i + 1)
  end.

(** hash of [x] = 1 + first index of [x] among the blobs, 0 for foreign strings *)
Definition hash_of (blobs : list bytes) (x : bytes) : Z := index_of x blobs 1.

Fixpoint is_prefix (p x : bytes) : bool :=
  match p, x with
  | [], _ => true
  | a :: p', b :: x' => (a =? b) && is_prefix p' x'
  | _, [] => false
  end.

Definition dec_blobs (s : sx) : list bytes := map sx_Zs (sx_list s).
Definition blob (blobs : list bytes) (bi : Z) : bytes := nth (Z.to_nat bi) blobs [].
Definition dec_dig (blobs : list bytes) (bi size : sx) : dig :=
  mkD (hash_of blobs (blob blobs (sx_Z bi))) (sx_Z size).
Definition enc_ident (d : dig) : list sx := [A (d_hash d - 1); A (d_size d)].
Definition ident_eqb (s : sx) (d : dig) : bool :=
  (sx_Z (sx_nth s 0) =? d_hash d - 1) && (sx_Z (sx_nth s 1) =? d_size d).

Definition dec_rn (blobs : list bytes) (s : sx) : rname :=
  let rk := sx_Z (sx_nth s 0) in
  let d := dec_dig blobs (sx_nth s 1) (sx_nth s 2) in
  if rk =? 3 then RBad cInvalidArgument
  else if d_size d <? 0 then RBad cInvalidArgument
  else if rk =? 0 then RIdentity d
  else if rk =? 1 then RZstd d
  else ROther.

Definition rn_dig (blobs : list bytes) (s : sx) : dig := dec_dig blobs (sx_nth s 1) (sx_nth s 2).

Definition dec_msg (s : sx) : wmsg := mkW (sx_Z (sx_nth s 0)) (sx_Zs (sx_nth s 1)) (sx_bool (sx_nth s 2)).
Definition dec_term (s : sx) : term := if sx_Z s =? 0 then TEof else TErr (sx_Z s).

(** The oracle: decompression of the concatenation of the first k messages. *)
Fixpoint table_lookup (c acc : bytes) (datas : list bytes) (orc : list sx) : dres :=
  match datas, orc with
  | d :: ds, o :: os =>
      let acc' := acc ++ d in
      if bytes_eqb acc' c
      then (match o with
            | L [A 1; b] => DOk (sx_Zs b)
            | L [A 2; b] => DTrunc (sx_Zs b)
            | _ => DBad end)
      else table_lookup c acc' ds os
  | _, _ => DBad
  end.
Definition oracle_decompress (ms : list wmsg) (orc : sx) (c : bytes) : dres :=
  table_lookup c [] (map w_data ms) (sx_list orc).

(** A stand-in codec for the parts where both ends are the model. *)
Definition fcompress (x : bytes) : bytes := 40 :: x.
Definition fdecompress (c : bytes) : dres :=
  match c with [] => DOk [] | 40 :: x => DOk x | _ => DBad end.

Definition dec_sendfail (s : sx) : option (nat * Z) :=
  match s with L [A j; A c] => Some (Z.to_nat j, c) | _ => None end.

(** Backend answer of the harness's backend for a Get, from the mode. *)
Definition get_of_mode (blobs : list bytes) (bm : Z) (x : bytes) (d : dig) : bytes + Z :=
  if bm =? 0 then backend_get (hash_of blobs) (Some x) d
  else if bm =? 1 then inr cInternal
  else inr bm.

(** ** run: the operational model *)
Definition enc_stored (d : dig) (o : option bytes) : sx :=
  match o with None => L [] | Some x => L [L (enc_ident d ++ [of_Zs x])] end.

Definition run_write (inp orc : sx) : sx :=
  let blobs := dec_blobs (sx_nth inp 1) in
  let ms := map dec_msg (sx_list (sx_nth inp 3)) in
  let r := write (hash_of blobs) (oracle_decompress ms orc) (sx_Z (sx_nth inp 5))
                 (dec_rn blobs (sx_nth inp 2)) ms (dec_term (sx_nth inp 4)) in
  L [A (wr_code r); of_Zs (wr_alts r); A (wr_committed r);
     enc_stored (rn_dig blobs (sx_nth inp 2)) (wr_stored r)].

Definition run_read (inp : sx) : sx :=
  let blobs := dec_blobs (sx_nth inp 1) in
  let rn := dec_rn blobs (sx_nth inp 2) in
  let x := blob blobs (sx_Z (sx_nth (sx_nth inp 2) 1)) in
  let get := get_of_mode blobs (sx_Z (sx_nth inp 3)) x in
  let k := sx_Z (sx_nth inp 4) in
  let chunk := sx_nat (sx_nth inp 6) in
  match rn with
  | RZstd _ =>
      (* compare on the decoded stream, without the send fault (judged separately) *)
      let '(c, msgs) := read fcompress rn (sx_Z (sx_nth inp 5)) get k chunk [] None in
      L [A c; L []; of_Zs (match decoded (fdecompress (concat msgs)) with Some y => y | None => [] end); A 1]
  | _ =>
      let '(c, msgs) := read fcompress rn (sx_Z (sx_nth inp 5)) get k chunk [] (dec_sendfail (sx_nth inp 7)) in
      L [A c; L (map of_Zs msgs); of_Zs (concat msgs); A 1]
  end.

Definition dec_uentry (blobs : list bytes) (s : sx) : dig * bytes * Z :=
  (dec_dig blobs (sx_nth s 0) (sx_nth s 1), sx_Zs (sx_nth s 2), sx_Z (sx_nth s 3)).

(** several entries may name the same digest: the backend's Put mode of a
    digest is that of the last entry naming it with a non-zero mode *)
Definition upd_mode (es : list (dig * bytes * Z)) (d : dig) : Z :=
  fold_left (fun acc e => if dig_eqb (fst (fst e)) d && negb (snd e =? 0) then snd e else acc) es 0.

Definition run_batch_update (inp : sx) : sx :=
  let blobs := dec_blobs (sx_nth inp 1) in
  let es := map (dec_uentry blobs) (sx_list (sx_nth inp 2)) in
  let es' := map (fun e => (fst e, upd_mode es (fst (fst e)))) es in
  let rs := batch_update (hash_of blobs) es' in
  L [A 0;
     L (map (fun p => L [L (enc_ident (fst (fst (fst p)))); A (fst (snd p))]) (combine es rs));
     L (flat_map (fun p => match snd (snd p) with
                           | Some x => [L (enc_ident (fst (fst (fst p))) ++ [of_Zs x])]
                           | None => [] end) (combine es rs))].

(** the backend holds, for a digest, what the last entry naming it planted *)
Definition rd_mode (es : list (dig * Z * bytes)) (d : dig) : bytes + Z :=
  fold_left (fun acc e => if dig_eqb (fst (fst e)) d then
                            (let bm := snd (fst e) in
                             if bm =? 0 then inl (snd e) else if bm =? 1 then inr 1 else inr bm)
                          else acc) es (inr 5).

Definition dec_rentry (blobs : list bytes) (s : sx) : dig * Z * bytes :=
  (dec_dig blobs (sx_nth s 0) (sx_nth s 1), sx_Z (sx_nth s 2), blob blobs (sx_Z (sx_nth s 0))).

Definition rd_get (blobs : list bytes) (es : list (dig * Z * bytes)) (d : dig) : bytes + Z :=
  match rd_mode es d with
  | inl x => backend_get (hash_of blobs) (Some x) d
  | inr c => if c =? 1 then inr cInternal else inr c
  end.

Definition run_batch_read (inp : sx) : sx :=
  let blobs := dec_blobs (sx_nth inp 1) in
  let es := map (dec_rentry blobs) (sx_list (sx_nth inp 2)) in
  let ds := map (fun e => fst (fst e)) es in
  match batch_read (rd_get blobs es) (sx_Z (sx_nth inp 3)) ds with
  | None => L [A cInvalidArgument; L []]
  | Some rs => L [A 0; L (map (fun p => L [L (enc_ident (fst p)); A (fst (snd p)); of_Zs (snd (snd p))])
                               (combine ds rs))]
  end.

Definition dec_fentry (blobs : list bytes) (s : sx) : dig * bool :=
  (dec_dig blobs (sx_nth s 0) (sx_nth s 1), sx_bool (sx_nth s 2)).
Definition fm_missing (es : list (dig * bool)) (d : dig) : bool :=
  existsb (fun e => dig_eqb (fst e) d && snd e) es.

Definition run_find_missing (inp : sx) : sx :=
  let blobs := dec_blobs (sx_nth inp 1) in
  let es := map (dec_fentry blobs) (sx_list (sx_nth inp 2)) in
  let '(c, ms) := find_missing (fm_missing es) (sx_Z (sx_nth inp 3)) (map fst es) in
  L [A c; L (map (fun d => L (enc_ident d)) ms)].

(** client <-> server: the store is an association list digest -> bytes *)
Definition store := list (dig * bytes).
Definition st_get (s : store) (d : dig) : option bytes :=
  match find (fun e => dig_eqb (fst e) d) s with Some e => Some (snd e) | None => None end.
Definition st_put (s : store) (d : dig) (x : bytes) : store :=
  (d, x) :: filter (fun e => negb (dig_eqb (fst e) d)) s.

Definition cs_op (blobs : list bytes) (zstd : bool) (chunk : nat) (st : store) (op : sx) : store * sx :=
  let k := sx_Z (sx_nth op 0) in
  if k =? 0 then
    let d := dec_dig blobs (sx_nth op 1) (sx_nth op 2) in
    let r := client_put (hash_of blobs) fdecompress fcompress zstd chunk [] d (blob blobs (sx_Z (sx_nth op 1))) in
    (match wr_stored r with Some x => st_put st d x | None => st end, L [A (wr_code r); L []])
  else if k =? 1 then
    let d := dec_dig blobs (sx_nth op 1) (sx_nth op 2) in
    match client_get (hash_of blobs) fdecompress fcompress zstd chunk [] []
                     (fun d' => backend_get (hash_of blobs) (st_get st d') d') d with
    | inl x => (st, L [A 0; of_Zs x])
    | inr c => (st, L [A c; L []])
    end
  else
    let ds := map (fun e => dec_dig blobs (sx_nth e 0) (sx_nth e 1)) (sx_list (sx_nth op 1)) in
    let '(c, ms) := find_missing (fun d => match st_get st d with None => true | Some _ => false end) 0 ds in
    (st, L [A c; L (map (fun d => L (enc_ident d)) ms)]).

Fixpoint cs_ops (blobs : list bytes) (zstd : bool) (chunk : nat) (st : store) (ops : list sx) : store * list sx :=
  match ops with
  | [] => (st, [])
  | op :: ops' => let '(st', r) := cs_op blobs zstd chunk st op in
                  let '(st'', rs) := cs_ops blobs zstd chunk st' ops' in (st'', r :: rs)
  end.

Definition run_cs (inp : sx) : sx :=
  let blobs := dec_blobs (sx_nth inp 1) in
  let '(st, rs) := cs_ops blobs (negb (sx_Z (sx_nth inp 2) =? 0)) (sx_nat (sx_nth inp 3)) [] (sx_list (sx_nth inp 4)) in
  L [L rs; L (map (fun e => L (enc_ident (fst e) ++ [of_Zs (snd e)])) st)].

(** ActionCache: the service is the backend's map from action digest to result *)
Fixpoint ac_ops (st : list (Z * Z)) (ops : list sx) : list sx :=
  match ops with
  | [] => []
  | op :: ops' =>
      let key := sx_Z (sx_nth op 1) in
      if sx_Z (sx_nth op 0) =? 0
      then L [A 0; A 0] :: ac_ops ((key, sx_Z (sx_nth op 2)) :: st) ops'
      else match find (fun e => fst e =? key) st with
           | Some e => L [A 0; A (snd e)]
           | None => L [A cNotFound; A 0]
           end :: ac_ops st ops'
  end.
Definition run_ac (inp : sx) : sx := L (ac_ops [] (sx_list (sx_nth inp 1))).

Definition run14 (inp orc : sx) : sx :=
  let k := sx_Z (sx_nth inp 0) in
  if k =? 0 then run_write inp orc
  else if k =? 1 then run_read inp
  else if k =? 2 then run_batch_update inp
  else if k =? 3 then run_batch_read inp
  else if k =? 4 then run_find_missing inp
  else if k =? 5 then run_cs inp
  else run_ac inp.

(** ** agreement of an implementation observation with the model's output *)
Definition sx_forall2 (f : sx -> sx -> bool) (a b : list sx) : bool :=
  (length a =? length b)%nat && forallb (fun p => f (fst p) (snd p)) (combine a b).
Definition sx_subset (a b : list sx) : bool := forallb (fun x => existsb (sx_eqb x) b) a.
Definition sx_seteq (a b : list sx) : bool := sx_subset a b && sx_subset b a.
(** per-operation results of a client<->server case: FindMissing answers are sets *)
Definition cs_res_eqb (op r m : sx) : bool :=
  if sx_Z (sx_nth op 0) =? 2
  then sx_eqb (sx_nth r 0) (sx_nth m 0) && sx_seteq (sx_list (sx_nth r 1)) (sx_list (sx_nth m 1))
  else sx_eqb r m.
Fixpoint cs_res_all (ops rs ms : list sx) : bool :=
  match ops, rs, ms with
  | [], [], [] => true
  | op :: ops', r :: rs', m :: ms' => cs_res_eqb op r m && cs_res_all ops' rs' ms'
  | _, _, _ => false
  end.

Definition agree14 (inp m res : sx) : bool :=
  let k := sx_Z (sx_nth inp 0) in
  if k =? 0 then
    let c := sx_Z (sx_nth res 0) in
    ((c =? sx_Z (sx_nth m 0)) && ((negb (c =? 0)) || (sx_Z (sx_nth res 1) =? sx_Z (sx_nth m 2)))
     && sx_eqb (sx_nth res 2) (sx_nth m 3))
    || (existsb (Z.eqb c) (sx_Zs (sx_nth m 1)) && sx_eqb (sx_nth res 2) (L []))
  else if k =? 1 then
    let zstd := sx_Z (sx_nth (sx_nth inp 2) 0) =? 1 in
    let chunk := sx_Z (sx_nth inp 6) in
    if zstd then
      match dec_sendfail (sx_nth inp 7) with
      | None => sx_eqb (sx_nth res 0) (sx_nth m 0) && sx_eqb (sx_nth res 2) (sx_nth m 2)
                && sx_eqb (sx_nth res 3) (sx_nth m 3)
      | Some (_, fc) =>
          if negb (sx_Z (sx_nth m 0) =? 0) then sx_eqb (sx_nth res 0) (sx_nth m 0) && sx_eqb (sx_nth res 2) (L [])
          else if sx_Z (sx_nth res 0) =? 0
               then sx_eqb (sx_nth res 2) (sx_nth m 2) && sx_eqb (sx_nth res 3) (sx_nth m 3)
               else (sx_Z (sx_nth res 0) =? fc) && is_prefix (sx_Zs (sx_nth res 2)) (sx_Zs (sx_nth m 2))
      end
    else sx_eqb res m
  else if k =? 5 then
    cs_res_all (sx_list (sx_nth inp 4)) (sx_list (sx_nth res 0)) (sx_list (sx_nth m 0))
    && (length (sx_list (sx_nth res 1)) =? length (sx_list (sx_nth m 1)))%nat
    && sx_seteq (sx_list (sx_nth res 1)) (sx_list (sx_nth m 1))
  else if k =? 4 then
    sx_eqb (sx_nth res 0) (sx_nth m 0) && sx_seteq (sx_list (sx_nth res 1)) (sx_list (sx_nth m 1))
  else sx_eqb res m.

(** ** The monitor: the property, evaluated on implementation observations.
    It is phrased over contiguity, finish, validity, suffix and the backend's
    state; it shares [oracle_decompress] and [rd_mode] with the model, and the
    ActionCache clause compares with [run_ac]. *)
Fixpoint upto_fin (ms : list wmsg) : list wmsg :=
  match ms with
  | [] => []
  | m :: ms' => if w_fin m then [m] else m :: upto_fin ms'
  end.
Fixpoint contiguous_b (woff : Z) (ms : list wmsg) : bool :=
  match ms with
  | [] => true
  | m :: ms' => (w_off m =? woff) && contiguous_b (woff + blen (w_data m)) ms'
  end.
Definition tail_contiguous (ms : list wmsg) : bool :=
  match ms with [] => true | m :: ms' => contiguous_b (blen (w_data m)) ms' end.
Definition fin_last_only (ms : list wmsg) : bool :=
  match rev ms with
  | [] => false
  | l :: pre => w_fin l && forallb (fun m => negb (w_fin m)) pre
  end.
Definition cl (b : bool) (n : Z) : list Z := if b then [n] else [].

Definition mon_write (inp orc res : sx) : list Z :=
  let blobs := dec_blobs (sx_nth inp 1) in
  let rk := sx_Z (sx_nth (sx_nth inp 2) 0) in
  let d := rn_dig blobs (sx_nth inp 2) in
  let ms := map dec_msg (sx_list (sx_nth inp 3)) in
  let zstd := rk =? 1 in
  (* a compressed upload is over at the first finish_write: later messages are not part of it *)
  let used := if zstd then upto_fin ms else ms in
  let code := sx_Z (sx_nth res 0) in
  let stored := sx_list (sx_nth res 2) in
  let any := negb (match stored with [] => true | _ => false end) in
  let payload := concat (map w_data used) in
  let content := if zstd then decoded (oracle_decompress ms orc payload) else Some payload in
  let good := match stored, content with
              | [o], Some x => ((rk =? 0) || (rk =? 1)) && ident_eqb o d
                               && bytes_eqb (sx_Zs (sx_nth o 2)) x && valid (hash_of blobs) d x
              | _, _ => false
              end in
  (* 1: stored although the first write_offset is not zero *)
  cl (any && match ms with m :: _ => negb (w_off m =? 0) | [] => true end) 1 ++
  (* 2: stored although offsets are not contiguous or the upload was not finished properly *)
  cl (any && negb (tail_contiguous used && fin_last_only used
                   && (zstd || match dec_term (sx_nth inp 4) with TEof => true | _ => false end))) 2 ++
  (* 3: what was stored is not the (decompressed) concatenation, or does not match the digest *)
  cl (any && negb good) 3 ++
  (* 4: the RPC failed but something became visible *)
  cl (negb (code =? 0) && any) 4 ++
  (* 5: the RPC succeeded but nothing was stored *)
  cl ((code =? 0) && negb any) 5.

Definition mon_read (inp res : sx) : list Z :=
  let blobs := dec_blobs (sx_nth inp 1) in
  let rk := sx_Z (sx_nth (sx_nth inp 2) 0) in
  let d := rn_dig blobs (sx_nth inp 2) in
  let x := blob blobs (sx_Z (sx_nth (sx_nth inp 2) 1)) in
  let present := ((rk =? 0) || (rk =? 1)) && (sx_Z (sx_nth inp 3) =? 0) && valid (hash_of blobs) d x in
  let k := sx_Z (sx_nth inp 4) in
  let code := sx_Z (sx_nth res 0) in
  let got := sx_Zs (sx_nth res 2) in
  let complete := sx_bool (sx_nth res 3) in
  if negb (sx_Z (sx_nth inp 5) =? 0) then []          (* read_limit: not part of the property *)
  else if present && (0 <=? k) && (k <=? blen x) then
    let suffix := skipn (Z.to_nat k) x in
    match dec_sendfail (sx_nth inp 7) with
    | None => cl (negb ((code =? 0) && bytes_eqb got suffix && complete)) 6
    | Some _ => cl (negb (is_prefix got suffix && ((negb (code =? 0)) || (bytes_eqb got suffix && complete)))) 6
    end
  else cl (negb (match got with [] => true | _ => false end)) 6.

Definition mon_batch_update (inp res : sx) : list Z :=
  let blobs := dec_blobs (sx_nth inp 1) in
  let es := map (dec_uentry blobs) (sx_list (sx_nth inp 2)) in
  let code := sx_Z (sx_nth res 0) in
  let sts := sx_list (sx_nth res 1) in
  let stored := sx_list (sx_nth res 2) in
  let ok_status := (code =? 0) && (length sts =? length es)%nat
                   && forallb (fun p => ident_eqb (sx_nth (fst p) 0) (fst (fst (snd p)))) (combine sts es) in
  let pairs := combine sts es in
  (* every stored object matches its digest and was sent, with an OK status, in this call *)
  let stored_ok := forallb (fun o =>
       existsb (fun p => let d := fst (fst (snd p)) in
                         ident_eqb o d && bytes_eqb (sx_Zs (sx_nth o 2)) (snd (fst (snd p)))
                         && valid (hash_of blobs) d (snd (fst (snd p)))
                         && (sx_Z (sx_nth (fst p) 1) =? 0)) pairs) stored in
  (* every OK status is backed by a stored object *)
  let ok_backed := forallb (fun p => negb (sx_Z (sx_nth (fst p) 1) =? 0)
       || existsb (fun o => ident_eqb o (fst (fst (snd p))) && bytes_eqb (sx_Zs (sx_nth o 2)) (snd (fst (snd p)))) stored) pairs in
  cl (negb (ok_status && stored_ok && ok_backed)) 8.

Definition mon_batch_read (inp res : sx) : list Z :=
  let blobs := dec_blobs (sx_nth inp 1) in
  let es := map (dec_rentry blobs) (sx_list (sx_nth inp 2)) in
  let code := sx_Z (sx_nth res 0) in
  let rs := sx_list (sx_nth res 1) in
  if negb (code =? 0) then cl (negb (match rs with [] => true | _ => false end)) 9
  else
    cl (negb ((length rs =? length es)%nat
        && forallb (fun p => let e := snd p in let r := fst p in
             let d := fst (fst e) in
             ident_eqb (sx_nth r 0) d &&
             match rd_mode es d with
             | inl x => if valid (hash_of blobs) d x
                        then (sx_Z (sx_nth r 1) =? 0) && bytes_eqb (sx_Zs (sx_nth r 2)) x   (* the backend's object, exactly *)
                        else negb (sx_Z (sx_nth r 1) =? 0) && bytes_eqb (sx_Zs (sx_nth r 2)) []  (* never a mismatch *)
             | inr _ => negb (sx_Z (sx_nth r 1) =? 0) && bytes_eqb (sx_Zs (sx_nth r 2)) []
             end) (combine rs es))) 9.

Definition mon_find_missing (inp res : sx) : list Z :=
  let blobs := dec_blobs (sx_nth inp 1) in
  let es := map (dec_fentry blobs) (sx_list (sx_nth inp 2)) in
  let code := sx_Z (sx_nth res 0) in
  let ms := sx_list (sx_nth res 1) in
  let illformed := existsb (fun e => d_size (fst e) <? 0) es in
  if illformed || negb (sx_Z (sx_nth inp 3) =? 0)
  then cl (negb (match ms with [] => true | _ => false end) || ((code =? 0) && negb (match es with [] => true | _ => false end))) 10
  else
    cl (negb ((code =? 0)
              (* every reported digest was asked for and is missing in the backend *)
              && forallb (fun m => existsb (fun e => ident_eqb m (fst e) && fm_missing es (fst e)) es) ms
              (* every asked digest that the backend misses is reported *)
              && forallb (fun e => negb (fm_missing es (fst e)) || existsb (fun m => ident_eqb m (fst e)) ms) es)) 10.

(** client <-> server: like the backend itself *)
Fixpoint mon_cs_ops (blobs : list bytes) (st : store) (ops rs : list sx) : bool * store :=
  match ops, rs with
  | [], [] => (true, st)
  | op :: ops', r :: rs' =>
      let k := sx_Z (sx_nth op 0) in
      let code := sx_Z (sx_nth r 0) in
      if k =? 0 then
        let d := dec_dig blobs (sx_nth op 1) (sx_nth op 2) in
        let x := blob blobs (sx_Z (sx_nth op 1)) in
        if valid (hash_of blobs) d x
        then if code =? 0 then mon_cs_ops blobs (st_put st d x) ops' rs' else (false, st)
        else if code =? 0 then (false, st) else mon_cs_ops blobs st ops' rs'
      else if k =? 1 then
        let d := dec_dig blobs (sx_nth op 1) (sx_nth op 2) in
        let good := match st_get st d with
                    | Some x => (code =? 0) && bytes_eqb (sx_Zs (sx_nth r 1)) x
                    | None => (code =? cNotFound) && bytes_eqb (sx_Zs (sx_nth r 1)) []
                    end in
        if good then mon_cs_ops blobs st ops' rs' else (false, st)
      else
        let ds := map (fun e => dec_dig blobs (sx_nth e 0) (sx_nth e 1)) (sx_list (sx_nth op 1)) in
        let ms := sx_list (sx_nth r 1) in
        let miss d := match st_get st d with None => true | Some _ => false end in
        let good := (code =? 0)
                    && forallb (fun m => existsb (fun d => ident_eqb m d && miss d) ds) ms
                    && forallb (fun d => negb (miss d) || existsb (fun m => ident_eqb m d) ms) ds in
        if good then mon_cs_ops blobs st ops' rs' else (false, st)
  | _, _ => (false, st)
  end.

Definition mon_cs (inp res : sx) : list Z :=
  let blobs := dec_blobs (sx_nth inp 1) in
  let '(ok, st) := mon_cs_ops blobs [] (sx_list (sx_nth inp 4)) (sx_list (sx_nth res 0)) in
  let final := sx_list (sx_nth res 1) in
  cl (negb (ok && sx_seteq final (map (fun e => L (enc_ident (fst e) ++ [of_Zs (snd e)])) st))) 11.

Definition mon_ac (inp res : sx) : list Z :=
  cl (negb (sx_eqb res (run_ac inp))) 12.

Definition mon14 (inp obs : sx) : list Z :=
  let orc := sx_nth obs 0 in
  let res := sx_nth obs 1 in
  let k := sx_Z (sx_nth inp 0) in
  if k =? 0 then mon_write inp orc res
  else if k =? 1 then mon_read inp res
  else if k =? 2 then mon_batch_update inp res
  else if k =? 3 then mon_batch_read inp res
  else if k =? 4 then mon_find_missing inp res
  else if k =? 5 then mon_cs inp res
  else mon_ac inp res.

Definition judge14 (inp obs : sx) : sx :=
  let m := run14 inp (sx_nth obs 0) in
  let v := mon14 inp obs in
  verdict (agree14 inp m (sx_nth obs 1)) (negb (match v with [] => true | _ => false end)) m (of_Zs v).
