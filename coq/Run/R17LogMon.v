(** C17 / C17L: the monitor clauses that read the event log (24, 25; 27) are
    silent on the event log of EVERY trace of the model's transition system
    (Compose/EventLog.v: [tlog], [xlog]); together with the clauses already
    proved silent on every accepted observation (21/22/23; 26) the whole
    monitor is silent on an accepted observation whose log is the log of a
    model trace. *)
From Coq Require Import List ZArith NArith Bool Arith Lia.
From BBS Require Import Common.Sx Common.SxFactsMA Common.ListX Run.MonSilentSx Compose.ExistenceCache Compose.ExistenceCacheProofs
  Compose.Replicators Compose.ReplicatorsProofs Compose.MonSilentRepl Compose.ReplEntry Compose.ReplEntryProofs
  Compose.EventLog Run.R17Conc Run.R17 Run.R17L Run.R17Proofs Run.R17LProofs
  Run.R17LogBase Run.R17LogDedup Run.R17LogEntry Run.R17LogOrder.
Import ListNotations.
Local Open Scope nat_scope.

Lemma five_fields_not_panic a b c d e : sx_eqb (L [a; b; c; d; e]) (L [A (-1)%Z]) = false.
Proof. cbn [sx_eqb]. apply andb_false_r. Qed.

(** What the success clauses demand of a log, per decorator. *)
Definition clauses_ok (m : mode) (sets : list (list nat)) (lg : list sx) : Prop :=
  match m with MQueued _ dur => clause25_ok dur sets lg | _ => clause24_ok sets lg end.

Lemma success_of_clauses inp m sets source sink evs o0 o1 o2 o3 lg :
  conc_cfg inp = (m, sets, source, sink, evs) -> clauses_ok m sets lg ->
  mon_conc_success inp (L [o0; o1; o2; o3; L lg]) = [].
Proof.
  intros Hc H. unfold mon_conc_success. rewrite Hc.
  change (sx_list (sx_nth (L [o0; o1; o2; o3; L lg]) 4)) with lg.
  apply flat_map_nil_in. intros i Hi. apply in_seq in Hi. destruct Hi as [_ Hi]. cbn [Nat.add] in Hi. cbv zeta.
  destruct (index_where _ lg 0) as [p|] eqn:E1; [|reflexivity].
  destruct (index_where _ lg 0) as [st|] eqn:E2 in |- *; [|reflexivity].
  destruct m as [|lim|size dur]; cbn [clauses_ok] in H.
  - rewrite (H i p st Hi E1 E2). reflexivity.
  - rewrite (H i p st Hi E1 E2). reflexivity.
  - pose proof (H i p st Hi E1 E2) as X. unfold tstart_of in X. rewrite X. reflexivity.
Qed.

Lemma trace_clauses_ok m sets source sink tr s :
  run m (init_state sets source sink) tr = Some s -> clauses_ok m sets (tlog m (init_state sets source sink) tr).
Proof.
  intros H. destruct m as [|lim|size dur]; cbn [clauses_ok].
  - eapply dedup_clause24; exact H.
  - eapply limit_clause24; exact H.
  - eapply queued_clause25; exact H.
Qed.

Lemma clauses_ok_same_run m sets lg lg' : same_run lg lg' -> clauses_ok m sets lg -> clauses_ok m sets lg'.
Proof.
  intros S. destruct m as [|lim|size dur]; cbn [clauses_ok];
    [apply clause24_same_run|apply clause24_same_run|apply clause25_same_run]; exact S.
Qed.

Theorem conc_success_silent_on_trace inp m sets source sink evs o0 o1 o2 o3 tr s :
  conc_cfg inp = (m, sets, source, sink, evs) ->
  run m (init_state sets source sink) tr = Some s ->
  mon_conc_success inp (L [o0; o1; o2; o3; L (tlog m (init_state sets source sink) tr)]) = [].
Proof. intros Hc H. eapply success_of_clauses; [exact Hc|eapply trace_clauses_ok; exact H]. Qed.

(** Clauses 24 / 25 on every rewrite of the log of a trace that keeps each
    caller's lines in order and moves no line across a start event
    (Run/R17LogOrder.v). *)
Theorem conc_success_silent_any_write_order inp m sets source sink evs o0 o1 o2 o3 tr s lg' :
  conc_cfg inp = (m, sets, source, sink, evs) ->
  run m (init_state sets source sink) tr = Some s ->
  same_run (tlog m (init_state sets source sink) tr) lg' ->
  mon_conc_success inp (L [o0; o1; o2; o3; L lg']) = [].
Proof.
  intros Hc H S. eapply success_of_clauses; [exact Hc|]. eapply clauses_ok_same_run; [exact S|]. eapply trace_clauses_ok; exact H.
Qed.

(** The whole monitor on what the model itself shows along a trace: the
    maxima and sink of the state reached, the log of the trace. *)
Theorem mon_conc_silent_on_trace inp m sets source sink evs rounds tr s :
  conc_cfg inp = (m, sets, source, sink, evs) ->
  run m (init_state sets source sink) tr = Some s ->
  mon_conc inp (L [rounds; of_nat (maxkey s); of_nat (maxall s); of_nats (snk s);
                   L (tlog m (init_state sets source sink) tr)]) = [].
Proof.
  intros Hc H. rewrite mon_conc_split.
  rewrite five_fields_not_panic.
  rewrite (conc_success_silent_on_trace inp m sets source sink evs _ _ _ _ tr s Hc H), app_nil_r.
  unfold mon_conc_counts. rewrite Hc, !sx_nth_L. cbn [nth]. rewrite !sx_nat_of_nat. pose proof (maxima_bounded m sets source sink tr s H) as B.
  unfold conc_counts. destruct m as [|lim|size dur]; cbn [bound_ok] in B;
    match goal with |- (if ?c then _ else _) = _ => assert (E : c = false) by (apply Nat.ltb_ge; exact B); rewrite E end; reflexivity.
Qed.

(** "Agree implies no violation" for all clauses: an observation the judge
    accepts, whose event log is the log of ANY trace of the model - or any
    rewrite of it in the sense of [same_run] - raises no clause.  (The judge
    does not read the log, so the accepted observation stays accepted.) *)
Theorem mon17_silent_on_accepted_any_write_order inp obs m sets source sink evs tr s lg' :
  sx_Z (sx_nth inp 0) = 2%Z -> agree17 inp obs = true ->
  conc_cfg inp = (m, sets, source, sink, evs) ->
  run m (init_state sets source sink) tr = Some s ->
  same_run (tlog m (init_state sets source sink) tr) lg' ->
  let obs' := L [sx_nth obs 0; sx_nth obs 1; sx_nth obs 2; sx_nth obs 3; L lg'] in
  agree17 inp obs' = true /\ mon17 inp obs' = [].
Proof.
  intros Hk Ha Hc H S obs'.
  assert (Ha' : agree17 inp obs' = true).
  { revert Ha. unfold agree17, judge17, judge_conc. rewrite Hk.
    change (run_conc inp obs') with (run_conc inp obs). destruct (run_conc inp obs) as [a mo]. rewrite !agree_verdict. auto. }
  split; [exact Ha'|].
  unfold mon17. rewrite Hk. rewrite mon_conc_split.
  unfold obs' at 1. rewrite five_fields_not_panic.
  rewrite (conc_counts_silent_on_agreeing inp obs' Hk Ha'). cbn [app].
  exact (conc_success_silent_any_write_order inp m sets source sink evs _ _ _ _ tr s lg' Hc H S).
Qed.

Theorem mon17_silent_on_accepted_with_model_log inp obs m sets source sink evs tr s :
  sx_Z (sx_nth inp 0) = 2%Z -> agree17 inp obs = true ->
  conc_cfg inp = (m, sets, source, sink, evs) ->
  run m (init_state sets source sink) tr = Some s ->
  let obs' := L [sx_nth obs 0; sx_nth obs 1; sx_nth obs 2; sx_nth obs 3; L (tlog m (init_state sets source sink) tr)] in
  agree17 inp obs' = true /\ mon17 inp obs' = [].
Proof.
  intros Hk Ha Hc H. exact (mon17_silent_on_accepted_any_write_order inp obs m sets source sink evs tr s _ Hk Ha Hc H (same_run_refl _)).
Qed.

Theorem results_silent_any_write_order inp m kinds sets source sink evs o0 o1 o2 o3 tr x lg' :
  cfgL inp = (m, kinds, sets, source, sink, evs) ->
  xrun kinds m (xinit kinds sets source sink) tr = Some x ->
  same_run (xlog kinds m (xinit kinds sets source sink) tr) lg' ->
  monL_results inp (L [o0; o1; o2; o3; L lg']) = [].
Proof.
  intros Hc H S. unfold monL_results. rewrite Hc.
  change (sx_list (sx_nth (L [o0; o1; o2; o3; L lg']) 4)) with lg'.
  apply mon_results_silent. eapply clause27_same_run; [exact S|]. eapply entry_clause27. exact H.
Qed.

Theorem results_silent_on_trace inp m kinds sets source sink evs o0 o1 o2 o3 tr x :
  cfgL inp = (m, kinds, sets, source, sink, evs) ->
  xrun kinds m (xinit kinds sets source sink) tr = Some x ->
  monL_results inp (L [o0; o1; o2; o3; L (xlog kinds m (xinit kinds sets source sink) tr)]) = [].
Proof. intros Hc H. eapply results_silent_any_write_order; [exact Hc|exact H|apply same_run_refl]. Qed.

Theorem mon17L_silent_on_accepted_any_write_order inp obs m kinds sets source sink evs tr x lg' :
  agreeL inp obs = true ->
  cfgL inp = (m, kinds, sets, source, sink, evs) ->
  xrun kinds m (xinit kinds sets source sink) tr = Some x ->
  same_run (xlog kinds m (xinit kinds sets source sink) tr) lg' ->
  let obs' := L [sx_nth obs 0; sx_nth obs 1; sx_nth obs 2; sx_nth obs 3; L lg'] in
  agreeL inp obs' = true /\ mon17L inp obs' = [].
Proof.
  intros Ha Hc H S obs'.
  assert (Ha' : agreeL inp obs' = true).
  { rewrite agreeL_run in *. change (run_L inp obs') with (run_L inp obs). exact Ha. }
  split; [exact Ha'|].
  rewrite mon17L_split.
  unfold obs' at 1. rewrite five_fields_not_panic.
  destruct (bound_and_release_silent_on_accepted inp obs' Ha') as [-> ->]. cbn [app].
  exact (results_silent_any_write_order inp m kinds sets source sink evs _ _ _ _ tr x lg' Hc H S).
Qed.

Theorem mon17L_silent_on_accepted_with_model_log inp obs m kinds sets source sink evs tr x :
  agreeL inp obs = true ->
  cfgL inp = (m, kinds, sets, source, sink, evs) ->
  xrun kinds m (xinit kinds sets source sink) tr = Some x ->
  let obs' := L [sx_nth obs 0; sx_nth obs 1; sx_nth obs 2; sx_nth obs 3; L (xlog kinds m (xinit kinds sets source sink) tr)] in
  agreeL inp obs' = true /\ mon17L inp obs' = [].
Proof.
  intros Ha Hc H. exact (mon17L_silent_on_accepted_any_write_order inp obs m kinds sets source sink evs tr x _ Ha Hc H (same_run_refl _)).
Qed.
