(** C03, monitor versus model — part 9: clauses 1 and 4 (an acknowledged object the monitor OWES is
    unreadable at the read-back after a restart) never fire on an accepted observation, provided the
    read-back reports readable every key for which an owed copy's index record RESOLVES in the model.

    Ingredients: the copies of the monitor are live acknowledgements of the model (Run/R03MonCopies.v,
    also for inherited copies: [Lkg (fun _ => True)]); the acknowledgements are carried over
    restarts with their block LOCATIONS ([Sn]: a state snapshot lists, in order, the locations of the
    blocks of its moment; [carry_ack]); at every point every carried acknowledgement that is not evicted
    resolves ([G_acks_resolve]).  The store above the block list enters as ONE decidable check per
    read-back entry, evaluated on the replay's model state ([r_check]): if the BlockReference of an
    owed copy of key k resolves on the model's current list with its seed, the entry (32 k ...) reports
    the key readable (present in FindMissing, Get OK, right bytes) — i.e. "the store finds what the
    block list resolves" (the key-location map and the old/current/new map, properties C06 / C05).
    [r_obs] = all link checks of Run/R03MonCopies.v + this one + every restart re-attaches all blocks;
    [mon03_clauses14_silent]. *)
From Coq Require Import List NArith ZArith Bool Arith Lia.
From BBS Require Import Common.Sx Persist.PBL Persist.PBLProofs Persist.Syncer Persist.SyncerProofs
  Persist.Shutdown Persist.ShutdownArith Persist.ShutdownProofs Persist.ShutdownOrder Run.R03 Run.R03MonGhost
  Run.R03MonFields Run.R03MonStoreFields Run.R03MonReplay Run.R03MonList Run.R03Mon Run.R03MonAck Run.R03MonObs
  Run.R03MonInherit Run.R03MonCopies.
Import ListNotations.
Local Open Scope nat_scope.

Lemma gps_loop_locs : forall bs lastE synced seeds out, gps_loop bs lastE synced seeds = Ok out ->
  map bs_loc out = map b_loc (firstn (length out) bs).
Proof.
  induction bs as [|b bs IH]; intros lastE synced seeds out H; cbn [gps_loop] in H.
  - destruct (lastE <? synced); [discriminate|]. inversion H. reflexivity.
  - destruct (lastE <? synced); [|inversion H; reflexivity].
    destruct (length seeds <? _); [discriminate|].
    destruct (gps_loop bs _ synced seeds) as [r|] eqn:E; cbn [obind] in H; [|discriminate].
    inversion H; subst out. cbn. rewrite (IH _ _ _ _ E). reflexivity.
Qed.

Lemma gps_state_locs p p' st i b' : get_persistent_state p = Ok (p', st) -> nth_error (snd st) i = Some b' ->
  nth_error (locs p) i = Some (bs_loc b').
Proof.
  unfold get_persistent_state. destruct (gps_loop _ _ _ _) as [out|] eqn:E; [|discriminate]. cbn [obind].
  intros [= <- <-]. cbn [snd]. intros Hn.
  pose proof (gps_loop_locs _ _ _ _ _ E) as Hl.
  assert (Hm : nth_error (map bs_loc out) i = Some (bs_loc b')) by (rewrite nth_error_map, Hn; reflexivity).
  rewrite Hl in Hm. unfold locs.
  assert (Hi : i < length out) by (apply nth_error_Some; congruence).
  rewrite nth_error_map in Hm. rewrite nth_error_firstn_lt in Hm by exact Hi. rewrite nth_error_map. exact Hm.
Qed.

Definition Sn (s : sys) (gx : gsys) : Prop :=
  forall w, (In w (gs_writes gx) \/ exists t, get_pend gx t = Some w) ->
  forall i b', nth_error (snd (gw_state w)) i = Some b' ->
    gw_base_abs w + i < tr s \/ nth_error (locs (s_pbl s)) (gw_base_abs w + i - tr s) = Some (bs_loc b').

Lemma Sn_step cfg s e s' gx : Sn s gx -> step cfg s e = Some (Ok s') -> Sn s' (gstep s e s' gx).
Proof.
  intros HS Hs w Hw i b' Hn.
  pose proof (step_locs_shape _ _ _ _ Hs) as Hsh.
  assert (Hold : gw_base_abs w + i < tr s \/ nth_error (locs (s_pbl s)) (gw_base_abs w + i - tr s) = Some (bs_loc b')).
  { destruct (gstep_base _ _ _ _ _ _ Hs Hw) as [Ho|[Hb [p' Hg]]]; [apply (HS w Ho i b' Hn)|].
    right. rewrite Hb. rewrite Nat.add_comm, Nat.add_sub. eapply gps_state_locs; eauto. }
  destruct Hsh as [[Ht [l1 Hl]]|[Ht [b0 Hl]]].
  - rewrite Ht, Hl. destruct Hold as [H|H]; [left; exact H|right; apply nth_error_app_some; exact H].
  - rewrite Ht. destruct Hold as [H|H]; [left; lia|].
    destruct (Nat.lt_ge_cases (gw_base_abs w + i) (S (tr s))) as [L|L]; [left; exact L|]. right.
    rewrite Hl in H. replace (gw_base_abs w + i - tr s) with (S (gw_base_abs w + i - S (tr s))) in H by lia. exact H.
Qed.

Lemma Sn_gpath cfg P s gx s' gx' : gpath cfg P s gx s' gx' -> Sn s gx -> Sn s' gx'.
Proof. induction 1 as [|s x e s1 s' x' _ Hs _ IH]; [auto|]. intros B. apply IH. eapply Sn_step; eauto. Qed.

Lemma Sn_nowrites s gx : gs_writes gx = [] -> gs_pend_r gx = None -> gs_pend_p gx = None -> Sn s gx.
Proof.
  intros H1 H2 H3 w [Hin|[[|] Hp]]; [rewrite H1 in Hin; destruct Hin|cbn in Hp; congruence|cbn in Hp; congruence].
Qed.

Lemma restore_all_length init : forall n bl sd ls, restore_blocks (fun _ _ => true) init n = (bl, sd, ls) ->
  length bl = length init.
Proof.
  induction init as [|b rest IH]; intros n bl sd ls H; cbn in H; [inversion H; reflexivity|].
  destruct (restore_blocks (fun _ _ => true) rest (S n)) as [[bl' sd'] ls'] eqn:E. injection H as <-. cbn.
  rewrite (IH _ _ _ _ E). reflexivity.
Qed.

Lemma restart_locs st : locs (restart_of st) = map bs_loc (snd st).
Proof.
  destruct (restore_blocks (fun _ _ => true) (snd st) 0) as [[bl sd] ls] eqn:E.
  destruct (restart_shape _ _ _ _ E) as [R1 _]. unfold locs. rewrite R1, (restore_locs _ _ _ _ _ _ E).
  rewrite (restore_all_length _ _ _ _ _ E), firstn_all. reflexivity.
Qed.

Lemma restart_tr st now : tr (init_sys (restart_of st) now) = 0.
Proof.
  destruct (restore_blocks (fun _ _ => true) (snd st) 0) as [[bl sd] ls] eqn:E.
  destruct (restart_shape _ _ _ _ E) as [_ [_ [_ [R4 _]]]]. exact R4.
Qed.

Lemma carry_ack s gx w rest a ref lo now :
  Bw s gx -> Sn s gx -> gs_writes gx = w :: rest -> In a (g_acks (gs_g gx)) -> covers w a ->
  a_ref a = (fst (fst ref), snd (fst ref)) -> a_seed a = snd ref -> tr s <= a_abs a -> loc_at s (a_abs a) = Some lo ->
  ack_for (init_sys (restart_of (gw_state w)) now) (g_inh (inh_list w (g_acks (gs_g gx)))) ref (Some lo).
Proof.
  intros [B1 _] HS Hw Ha Hcov Hr Hsd Hge Hloc.
  assert (Hbase : gw_base_abs w <= a_abs a).
  { specialize (B1 w). rewrite Hw in B1. specialize (B1 (or_introl eq_refl)). lia. }
  exists (inh w a). cbn [g_inh gs_g g_acks]. split.
  { unfold inh_list. apply in_map. apply filter_In. split; [exact Ha|apply Nat.leb_le; exact Hbase]. }
  cbn [inh a_ref a_seed a_abs]. rewrite restart_tr. split; [exact Hr|]. split; [exact Hsd|]. split; [lia|].
  intros lo0 E0. inversion E0; subst lo0. unfold loc_at in *. cbn [s_pbl init_sys]. rewrite restart_tr, restart_locs, Nat.sub_0_r.
  destruct Hcov as [E|[_ [_ [_ [_ [_ [b [Hb _]]]]]]]]; [lia|]. cbv zeta in Hb.
  assert (Hj : a_abs a - gw_base_abs w < length (snd (gw_state w))).
  { assert (nth_error (blocks (restart_of (gw_state w))) (a_abs a - gw_base_abs w) <> None) as Hn by congruence.
    apply nth_error_Some in Hn. pose proof (f_equal (@length loc) (restart_locs (gw_state w))) as Hl.
    unfold locs in Hl. rewrite !map_length in Hl. lia. }
  destruct (nth_error (snd (gw_state w)) (a_abs a - gw_base_abs w)) as [b'|] eqn:Eb; [|apply nth_error_None in Eb; lia].
  rewrite nth_error_map, Eb. cbn [option_map].
  assert (Hin : In w (gs_writes gx) \/ exists t, get_pend gx t = Some w) by (left; rewrite Hw; left; reflexivity).
  destruct (HS w Hin _ _ Eb) as [H|H]; [lia|].
  replace (gw_base_abs w + (a_abs a - gw_base_abs w)) with (a_abs a) in H by lia.
  rewrite H in Hloc. exact Hloc.
Qed.

Definition resolves_in (x : xst) (ref : rref) : bool :=
  match ref_to_index (fst (fst ref)) (snd (fst ref)) (s_pbl (x_sys x)) with
  | Ok (Some (_, sd)) => N.eqb sd (snd ref)
  | _ => false
  end.

Definition small (x : xst) : bool :=
  ((Z.of_nat (length (blocks (s_pbl (x_sys x)))) <? 65536) && (Z.of_nat (length (epochSeeds (s_pbl (x_sys x)))) <? 4294967296))%Z.

Definition readable32 (objs e : sx) : bool :=
  Z.eqb (sx_Z (sx_nth e 4)) 0 && sx_eqb (sx_nth e 5) (sx_nth objs (sx_nat (sx_nth e 1)))
  && Z.eqb (sx_Z (sx_nth e 2)) 0 && Z.eqb (sx_Z (sx_nth e 3)) 0.

Definition r_check (objs : sx) (x : xst) (l : lst) (e : sx) : bool :=
  if (tag e =? 32)%Z then
    small x &&
    (if existsb (fun cr => Nat.eqb (c_key (fst cr)) (sx_nat (sx_nth e 1)) && c_old (fst cr) && resolves_in x (snd cr)) (l_cr l)
     then readable32 objs e else true)
  else true.

Definition no14 (z : Z) : Prop := z <> 1%Z /\ z <> 4%Z.

Lemma entry_no14 o cfgsx objs ops m l x gx e z :
  G o (x_sys x) gx -> Lkg (fun _ => True) m l (x_sys x) gx -> r_check objs x l e = true ->
  In z (m_viol (mon_entry cfgsx objs ops m e)) -> In z (m_viol m) \/ no14 z.
Proof.
  intros Hg HL Hck Hin.
  destruct (mon_entry_viol _ _ _ _ _ _ Hin) as [H|[->|[[_ [_ [_ [[-> _]|[-> _]]]]]|[E32 [_ [Howed Hnr]]]]]];
    [left; exact H|right; split; discriminate|right; split; discriminate|right; split; discriminate|].
  exfalso. fold (readable32 objs e) in Hnr. unfold r_check in Hck. rewrite E32 in Hck. cbn [Z.eqb Pos.eqb] in Hck.
  apply andb_prop in Hck. destruct Hck as [Hsm Hck].
  (* an owed copy of the key *)
  apply existsb_exists in Howed. destruct Howed as [cp [Hcp Hk]].
  rewrite <- (lk_cr _ _ _ _ _ HL) in Hcp. apply in_map_iff in Hcp. destruct Hcp as [[cp' ref] [Heq Hcr]].
  cbn [fst] in Heq. subst cp'.
  destruct (lk_ack _ _ _ _ _ HL cp ref Hcr I) as [a [Ha [Hr1 [Hr2 [Hge _]]]]].
  (* its acknowledgement resolves in the model *)
  assert (Hres : resolves_in x ref = true).
  { pose proof Hg as [[[[_ [Gi _]] _] _] _].
    pose proof (gi_acks _ _ _ Gi) as F. rewrite Forall_forall in F.
    destruct (F a Ha) as [Ev|Lv]; [unfold evicted in Ev; unfold tr in Hge; lia|].
    apply andb_prop in Hsm. destruct Hsm as [S1 S2]. apply Z.ltb_lt in S1. apply Z.ltb_lt in S2.
    pose proof (live_pos_lt _ _ _ Lv) as Hpos. unfold pos in Hpos.
    assert (H32 : (N.of_nat (a_ep a - g_pe (gs_g gx)) < 2 ^ 32)%N) by (change (2 ^ 32)%N with 4294967296%N; lia).
    assert (H16 : (Z.of_nat (a_last a - a_abs a) < 2 ^ 16)%Z).
    { destruct Lv as [Lge _ _ Llast _ _]. rewrite (gi_el _ _ _ Gi) in Llast.
      apply elayout_range in Llast. change (2 ^ 16)%Z with 65536%Z. lia. }
    destruct (G_acks_resolve o _ _ Hg a Ha H32 H16) as [Ev|[Q _]]; [unfold tr in Hge; lia|].
    unfold resolves_in. rewrite Hr1 in Q. cbn [fst snd] in Q. rewrite Q, Hr2. apply N.eqb_refl. }
  assert (Hex : existsb (fun cr => Nat.eqb (c_key (fst cr)) (sx_nat (sx_nth e 1)) && c_old (fst cr) && resolves_in x (snd cr)) (l_cr l) = true).
  { apply existsb_exists. exists (cp, ref). split; [exact Hcr|]. cbn [fst snd]. rewrite Hk, Hres. reflexivity. }
  rewrite Hex in Hck. congruence.
Qed.

Fixpoint r_entries (cfg : config) (bs : Z) (cfgsx objs : sx) (ops : list sx) (x : xst) (m : mst) (l : lst)
    (es : list sx) : bool :=
  match es with
  | [] => true
  | e :: r =>
      l_check cfgsx m l e && r_check objs x l e &&
      match replay_entry cfg bs x e with
      | Some x' => r_entries cfg bs cfgsx objs ops x' (mon_entry cfgsx objs ops m e) (l_step cfgsx m l e) r
      | None => true
      end
  end.

Lemma entries_all2 o cfg bs cfgsx objs ops st0 : forall es n m l x x1 gx,
  G o (x_sys x) gx -> J m (x_sys x) gx -> K st0 x gx -> Bw (x_sys x) gx -> Sn (x_sys x) gx ->
  Lkg (fun _ => True) m l (x_sys x) gx ->
  replay_entries cfg bs n x es = (x1, []) -> r_entries cfg bs cfgsx objs ops x m l es = true ->
  exists gx1, G o (x_sys x1) gx1 /\
    J (fold_left (mon_entry cfgsx objs ops) es m) (x_sys x1) gx1 /\ K st0 x1 gx1 /\ Bw (x_sys x1) gx1 /\
    Sn (x_sys x1) gx1 /\
    Lkg (fun _ => True) (fold_left (mon_entry cfgsx objs ops) es m) (l_fold cfgsx objs ops m l es) (x_sys x1) gx1 /\
    forall z, In z (m_viol (fold_left (mon_entry cfgsx objs ops) es m)) -> In z (m_viol m) \/ no14 z.
Proof.
  induction es as [|e es IH]; intros n m l x x1 gx Hg Hj Hk Hb Hsn HL H C; cbn [replay_entries r_entries] in H, C.
  - injection H as <-. exists gx. cbn. splits; auto.
  - destruct (replay_entry cfg bs x e) as [x'|] eqn:R; [|discriminate].
    apply andb_prop in C. destruct C as [C C2]. apply andb_prop in C. destruct C as [C1 C3].
    destruct (entry_inv o cfg bs cfgsx objs ops m x e x' gx Hg Hj R) as [gx' [Hp [Hg' [Hj' Hpost]]]].
    pose proof (entry_K cfg bs st0 e x gx x' gx' Hk Hp Hpost) as Hk'.
    pose proof (Bw_gpath _ _ _ _ _ _ Hp Hb) as Hb'.
    pose proof (Sn_gpath _ _ _ _ _ _ Hp Hsn) as Hsn'.
    pose proof (entry_Lk _ cfgsx objs ops cfg bs m l x e x' gx gx' R Hp Hpost C1 HL) as HL'.
    destruct (IH _ _ _ _ _ _ Hg' Hj' Hk' Hb' Hsn' HL' H C2) as [gx1 [A1 [A2 [A3 [A4 [A5 [A6 A7]]]]]]].
    exists gx1. cbn [fold_left l_fold]. splits; auto.
    intros z Hz. destruct (A7 z Hz) as [Hz'|Hz']; [|right; exact Hz'].
    apply (entry_no14 o cfgsx objs ops m l x gx e z Hg HL C3 Hz').
Qed.

Definition l_exit (prev : Z) (l : lst) : list (copy * rref) :=
  if Z.eqb prev 0 then [] else map (fun cr => (mkCopy (c_key (fst cr)) (c_loc (fst cr)) true, snd cr)) (l_cr l).

Fixpoint r_hists (c : sx) (cfg : config) (bs : Z) (cfgsx objs : sx) (incs hists : list sx) (m : mst)
    (crs : list (copy * rref)) (st0 : pstate) (now : N) : bool :=
  match incs, hists with
  | inc :: incs', h :: hists' =>
      match sx_list h with
      | e0 :: es =>
          match replay_restore c cfg bs st0 now e0 with
          | Some x0 =>
              let ops := sx_list (sx_nth inc 1) in
              let m' := mon_entry cfgsx objs ops m e0 in
              all_restored e0 && r_entries cfg bs cfgsx objs ops x0 m' (l0 crs) es &&
              (let x1 := fst (replay_entries cfg bs 1 x0 es) in
               let m1 := fold_left (mon_entry cfgsx objs ops) es m' in
               let l1 := l_fold cfgsx objs ops m' (l0 crs) es in
               r_hists c cfg bs cfgsx objs incs' hists' (mon_exit m1) (l_exit (m_prev (mon_exit m1)) l1)
                       (x_state x1) (s_now (x_sys x1)))
          | None => true
          end
      | [] => true
      end
  | _, _ => true
  end.

Definition r_obs (inp obs : sx) : bool :=
  let c := sx_nth inp 0 in
  r_hists c (mkConfig (sx_N (sx_nth c 9)) (sx_N (sx_nth c 10))) (sx_Z (sx_nth c 0)) c (sx_nth inp 1)
          (sx_list (sx_nth inp 2)) (sx_list obs) m_init [] init_pstate 0%N.

Lemma l_exit_copies prev m l : map fst (l_cr l) = m_copies m ->
  map fst (l_exit prev l) =
  (if Z.eqb prev 0 then [] else map (fun c => mkCopy (c_key c) (c_loc c) true) (m_copies m)).
Proof.
  intros H. unfold l_exit. destruct (Z.eqb prev 0); [reflexivity|]. rewrite <- H, !map_map. reflexivity.
Qed.

Lemma incs_no14 c cfg bs cfgsx objs : forall hists incs m crs inc st0 now A,
  m_fresh m -> m_upl m = [] -> map fst crs = m_copies m ->
  G (fst st0) (init_sys (restart_of st0) now) (g_inh A) ->
  (forall cp ref, In (cp, ref) crs -> ack_for (init_sys (restart_of st0) now) (g_inh A) ref (Some (c_loc cp))) ->
  replay_hists c cfg bs inc st0 now hists = [] ->
  r_hists c cfg bs cfgsx objs incs hists m crs st0 now = true ->
  forall z, In z (m_viol (mon_incs cfgsx objs incs hists m)) -> In z (m_viol m) \/ no14 z.
Proof.
  induction hists as [|h hs IH]; intros [|ic incs] m crs inc st0 now A Hf Hu Hcr Hg Hack Hr Hck z Hin;
    cbn [mon_incs] in Hin; auto.
  destruct (replay_hists_cons _ _ _ _ _ _ _ _ Hr) as [e0 [es [x0 [x1 [Eh [R0 [R1 R2]]]]]]].
  cbn [r_hists] in Hck. rewrite Eh, R0 in Hck. cbv zeta in Hck. rewrite R1 in Hck. cbn [fst] in Hck.
  apply andb_prop in Hck. destruct Hck as [Hck Hnext]. apply andb_prop in Hck. destruct Hck as [Hall Hent].
  rewrite Eh in Hin. cbn [fold_left] in Hin.
  destruct (restore_is_restart _ _ _ _ _ _ _ R0 Hall) as [T0 [Hst Hx0]].
  set (ops := sx_list (sx_nth ic 1)) in *.
  set (m' := mon_entry cfgsx objs ops m e0) in *.
  rewrite <- Hx0 in Hg, Hack.
  pose proof (J_restore_entry cfgsx objs ops m e0 (x_sys x0) (g_inh A) T0 Hf) as Hj0. fold m' in Hj0.
  assert (Hk0 : K st0 x0 (g_inh A)) by (unfold K; cbn; exact Hst).
  assert (Hb0 : Bw (x_sys x0) (g_inh A)) by (apply Bw_nowrites; reflexivity).
  assert (Hs0 : Sn (x_sys x0) (g_inh A)) by (apply Sn_nowrites; reflexivity).
  assert (HL0 : Lkg (fun _ => True) m' (l0 crs) (x_sys x0) (g_inh A)).
  { apply (Lk_start _ cfgsx objs ops c cfg bs st0 now e0 x0 m (g_inh A) crs R0 T0 Hu Hcr). intros cp ref Hc _. auto. }
  destruct (entries_all2 (fst st0) cfg bs cfgsx objs ops st0 es 1 m' (l0 crs) x0 x1 (g_inh A)
              Hg Hj0 Hk0 Hb0 Hs0 HL0 R1 Hent) as [gx [Hg1 [Hj1 [Hk1 [Hb1 [Hs1 [HL1 Hv1]]]]]]].
  set (m1 := fold_left (mon_entry cfgsx objs ops) es m') in *.
  set (l1 := l_fold cfgsx objs ops m' (l0 crs) es) in *.
  (* violations of this incarnation *)
  assert (Hthis : forall z, In z (m_viol m1) -> In z (m_viol m) \/ no14 z).
  { intros z0 Hz0. destruct (Hv1 z0 Hz0) as [H|H]; [|right; exact H].
    unfold m' in H. rewrite (mon_entry_viol_other _ _ _ _ _) in H by (rewrite T0; discriminate). left. exact H. }
  (* the next incarnation *)
  assert (Hnx : exists A', G (fst (x_state x1)) (init_sys (restart_of (x_state x1)) (s_now (x_sys x1))) (g_inh A') /\
            forall cp ref, In (cp, ref) (l_exit (m_prev (mon_exit m1)) l1) ->
              ack_for (init_sys (restart_of (x_state x1)) (s_now (x_sys x1))) (g_inh A') ref (Some (c_loc cp))).
  { unfold l_exit. destruct (Z.eqb_spec (m_prev (mon_exit m1)) 0) as [E|N].
    - exists []. split; [apply G_fresh|]. intros cp ref [].
    - destruct (exit_covers (fst st0) st0 m1 x1 gx Hg1 Hj1 Hk1 N) as [w [rest [Hw [Hxs [Hc Hcv]]]]].
      exists (inh_list w (g_acks (gs_g gx))). rewrite Hxs. split.
      + exact (G_next _ _ _ _ _ _ Hg1 Hw Hcv).
      + intros cp ref Hinc. apply in_map_iff in Hinc. destruct Hinc as [[cp0 ref0] [Heq Hin0]].
        cbn [fst snd] in Heq. inversion Heq; subst cp ref. cbn [c_loc].
        destruct (lk_ack _ _ _ _ _ HL1 cp0 ref0 Hin0 I) as [a [Ha [Hr1 [Hr2 [Hge Hloc]]]]].
        eapply carry_ack; eauto. }
  destruct Hnx as [A' [Hg' Hack']].
  assert (Hcr' : map fst (l_exit (m_prev (mon_exit m1)) l1) = m_copies (mon_exit m1)).
  { rewrite (l_exit_copies _ m1 l1 (lk_cr _ _ _ _ _ HL1)). unfold mon_exit. cbn [m_copies m_prev]. reflexivity. }
  destruct (IH incs (mon_exit m1) _ (S inc) _ _ A' (mon_exit_fresh m1) eq_refl Hcr' Hg' Hack' R2 Hnext z Hin) as [H|H];
    [|right; exact H].
  cbn [mon_exit m_viol] in H. apply Hthis. exact H.
Qed.

Theorem mon03_clauses14_silent inp obs : replay03 inp obs = [] -> r_obs inp obs = true ->
  forall z, In z (mon03 inp obs) -> z <> 1%Z /\ z <> 4%Z.
Proof.
  intros Hr Hck z Hin. unfold mon03 in Hin. destruct (is_marker obs).
  - destruct (Z.eqb _ _); destruct Hin as [<-|[]]; split; discriminate.
  - apply dedupz_in in Hin. unfold replay03 in Hr. unfold r_obs in Hck.
    assert (H : In z (m_viol m_init) \/ no14 z).
    { eapply (incs_no14 _ _ _ _ _ (sx_list obs) (sx_list (sx_nth inp 2)) m_init [] 0 init_pstate 0%N []);
        [apply m_init_fresh|reflexivity|reflexivity|apply G_fresh|intros cp ref []|exact Hr|exact Hck|exact Hin]. }
    destruct H as [[]|H]; exact H.
Qed.

(** all together: only clause 5 (wrong bytes) is left *)
Theorem mon03_silent_on_accepted_partial2 inp obs :
  is_marker obs = false -> replay03 inp obs = [] -> u_obs inp obs = true -> r_obs inp obs = true ->
  forall z, In z (mon03 inp obs) -> z = 5%Z.
Proof.
  intros Hm Hr Hu Hck z Hin.
  destruct (mon03_silent_on_accepted_partial inp obs Hm Hr Hu z Hin) as [->|[->| ->]]; [| |reflexivity];
    destruct (mon03_clauses14_silent inp obs Hr Hck _ Hin) as [N1 N4]; congruence.
Qed.
