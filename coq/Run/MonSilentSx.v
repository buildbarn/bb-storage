(** Facts about the sx data format used by the "monitor is silent on the
    model" proofs of Run/R13*, R14*, R17*, R20*:
    structural equality test, encoder/decoder round trips. *)
From BBS Require Import Common.Sx.
From BBS Require Common.SxFactsMA.

Lemma sx_eqb_eq : forall a b, sx_eqb a b = true -> a = b.
Proof. exact SxFactsMA.sx_eqb_eq. Qed.

Lemma sx_eqb_refl : forall a, sx_eqb a a = true.
Proof. exact SxFactsMA.sx_eqb_refl. Qed.

Lemma sx_nats_of_nats l : sx_nats (of_nats l) = l.
Proof. exact (SxFactsMA.sx_nats_of_nats l). Qed.

Lemma sx_list_of_nats_length l : length (sx_list (of_nats l)) = length l.
Proof. unfold of_nats. cbn [sx_list]. apply map_length. Qed.

Lemma sx_Zs_of_Zs l : sx_Zs (of_Zs l) = l.
Proof. exact (SxFactsMA.sx_Zs_of_Zs l). Qed.

Lemma sx_bool_of_bool b : sx_bool (of_bool b) = b.
Proof. exact (SxFactsMA.sx_bool_of_bool b). Qed.

Lemma sx_nth_L l i : sx_nth (L l) i = nth i l (L []).
Proof. reflexivity. Qed.
