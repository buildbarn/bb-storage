(** C17, clauses 24 and 25 on the event log of every trace of the model: a
    section per replicator kind (deduplicating, concurrency-limiting, queued)
    and [Section Kind], the per-caller invariant [TK] / [allK] ([covers],
    [tracks]) the last two instantiate. *)
From Coq Require Import List ZArith NArith Bool Arith Lia.
From BBS Require Import Common.Sx Common.ListX Run.MonSilentSx Compose.ExistenceCache Compose.ExistenceCacheProofs
  Compose.Replicators Compose.ReplicatorsProofs Compose.MonSilentRepl Compose.ReplEntry Compose.ReplEntryProofs
  Compose.EventLog Run.R17Conc Run.R17LogBase.
Import ListNotations.
Local Open Scope nat_scope.

(** C17, clause 24 for the deduplicating replicator: on the event log of every
    trace of the model, a caller that returned success has, for every object
    of its set, a justifying event (sink.FindMissing reporting it present, or
    a successful sink.Put) by a caller that acted again only after the asking
    caller's start.

    A justifying event emitted after the asking caller's start justifies it
    outright.  The other case: the owner j of in-flight entry e saw its
    justifying event BEFORE caller i started, and i still found e registered.
    Then j has not yet run its unregistration section, so the justifying
    event is j's last event in the log ([LastJ]) - and whatever j logs next
    comes after i's start.

    Ghost state: [ek], the key of every in-flight entry ever created (the
    entry table of the model does not record it). *)

(** Entry e has been justified: published as success, or its owner is past its justifying event. *)
Definition dn (s : cstate) (e : nat) : Prop :=
  nth_error (ents s) e = Some (true, true) \/ exists j tj, nth_error (thr s) j = Some tj /\ done_ok tj = Some e.

Section Dedup.
  Variable sets : list (list nat).

  Record TD (infl : list (nat * nat)) (dnp : nat -> Prop) (ek : list nat) (lg : list sx) (j : nat) (tj : thread) : Prop := mkTD {
    t_ask : forall k e, asked tj = Some (k, e) -> nth_error ek e = Some k /\ exists rest, todo tj = k :: rest;
    t_cl : forall k e c, tpc tj = Close k e c -> lookup_key k infl <> Some e;
    t_rest : single_rest tj;
    t_succ : forall x, In x lg -> is_succ j x = true -> tpc tj = Done 0;
    t_done : tpc tj = Done 0 -> todo tj = [];
    t_init : tpc tj = NotStarted -> todo tj = nth j sets [];
    t_prog : forall st, started_at j lg st -> forall d, In d (nth j sets []) -> In d (todo tj) \/ J d st lg;
    t_just : forall st, started_at j lg st ->
               match tpc tj with
               | Wait k e => dnp e -> J k st lg
               | Unreg k e c | Close k e c => c = 0%Z -> J k st lg
               | _ => True
               end;
    t_last : forall k e, tpc tj = Unreg k e 0 -> LastJ j k lg }.

  Definition DIk (ek : list nat) (s : cstate) (lg : list sx) : Prop :=
    length ek = length (ents s) /\
    (forall k e, lookup_key k (inflight s) = Some e -> nth_error ek e = Some k) /\
    (forall k e, lookup_key k (inflight s) = Some e -> nth_error (ents s) e <> Some (true, true)) /\
    forall j tj, nth_error (thr s) j = Some tj -> TD (inflight s) (dn s) ek lg j tj.
  Definition DI (s : cstate) (lg : list sx) : Prop := exists ek, DIk ek s lg.

  Lemma nth_error_some_lt {T} (l : list T) e x : nth_error l e = Some x -> e < length l.
  Proof. intros H. apply nth_error_Some. rewrite H. discriminate. Qed.

  Lemma TD_other infl infl' (dnp dnp' : nat -> Prop) ek ek' lg new i j tj :
    j <> i -> (forall x, In x new -> lg_caller x = i) ->
    (exists suf, ek' = ek ++ suf) ->
    (forall k e, e < length ek -> lookup_key k infl <> Some e -> lookup_key k infl' <> Some e) ->
    (forall e, dnp' e -> dnp e \/ exists k x, nth_error ek e = Some k /\ In x new /\ justifies k x = true) ->
    TD infl dnp ek lg j tj -> TD infl' dnp' ek' (lg ++ new) j tj.
  Proof.
    intros Hne Hc (suf & ->) Hinf Hdn [A B C D E F G Hj L].
    assert (Hn : forall x, In x new -> lg_caller x <> j) by (intros x Hx; rewrite (Hc x Hx); auto).
    assert (Hst : forall st, started_at j (lg ++ new) st -> started_at j lg st /\ st < length lg).
    { intros st Hs. apply started_app_inv in Hs; [|intros x Hx; apply not_caller_not_start, Hn, Hx].
      split; [exact Hs|eapply started_lt; exact Hs]. }
    constructor.
    - intros k e Ha. destruct (A k e Ha) as [A1 A2]. split; [|exact A2]. rewrite nth_error_app1; [exact A1|eapply nth_error_some_lt; exact A1].
    - intros k e c Hp. destruct (A k e) as [A1 _]; [unfold asked; rewrite Hp; reflexivity|].
      apply Hinf; [eapply nth_error_some_lt; exact A1|exact (B k e c Hp)].
    - exact C.
    - intros x Hx Sx. apply in_app_or in Hx. destruct Hx as [Hx|Hx]; [exact (D x Hx Sx)|].
      apply is_succ_caller in Sx. exfalso. exact (Hn x Hx Sx).
    - exact E.
    - exact F.
    - intros st Hs d Hd. destruct (Hst st Hs) as [Hs0 Hl]. destruct (G st Hs0 d Hd) as [X|X]; [left; exact X|right; apply J_app; assumption].
    - intros st Hs. destruct (Hst st Hs) as [Hs0 Hl]. specialize (Hj st Hs0).
      destruct (tpc tj) eqn:Hp; try exact Logic.I.
      + intros Hd. destruct (Hdn e Hd) as [X|(k0 & x & Hk & Hx & Jx)]; [apply J_app; [exact (Hj X)|exact Hl]|].
        destruct (A k e) as [A1 _]; [unfold asked; rewrite Hp; reflexivity|]. rewrite A1 in Hk. injection Hk as <-.
        eapply J_new; eassumption.
      + intros Hc0. apply J_app; [exact (Hj Hc0)|exact Hl].
      + intros Hc0. apply J_app; [exact (Hj Hc0)|exact Hl].
    - intros k e Hp. apply LastJ_app; [exact (L k e Hp)|exact Hn].
  Qed.

  Lemma TD_act infl infl' (dnp dnp' : nat -> Prop) ek ek' lg new i t t' :
    TD infl dnp ek lg i t ->
    (forall x, In x new -> is_start i x = false) -> tpc t <> Done 0 -> tpc t' <> NotStarted ->
    (forall k e, asked t' = Some (k, e) -> nth_error ek' e = Some k /\ exists rest, todo t' = k :: rest) ->
    (forall k e c, tpc t' = Close k e c -> lookup_key k infl' <> Some e) ->
    single_rest t' ->
    (forall x, In x new -> is_succ i x = true -> tpc t' = Done 0) ->
    (tpc t' = Done 0 -> todo t' = []) ->
    (forall st, started_at i lg st -> st < length lg -> forall d, In d (todo t) \/ J d st lg -> In d (todo t') \/ J d st (lg ++ new)) ->
    (forall st, started_at i lg st -> st < length lg ->
       match tpc t' with
       | Wait k e => dnp' e -> J k st (lg ++ new)
       | Unreg k e c | Close k e c => c = 0%Z -> J k st (lg ++ new)
       | _ => True
       end) ->
    (forall k e, tpc t' = Unreg k e 0 -> LastJ i k (lg ++ new)) ->
    TD infl' dnp' ek' (lg ++ new) i t'.
  Proof.
    intros [A B C D E F G Hj L] Hns Hnd Hnn Ha Hb Hc Hs He Hg Hjj Hl.
    assert (Hst : forall st, started_at i (lg ++ new) st -> started_at i lg st /\ st < length lg).
    { intros st H. apply started_app_inv in H; [|exact Hns]. split; [exact H|eapply started_lt; exact H]. }
    constructor; try assumption.
    - intros x Hx Sx. apply in_app_or in Hx. destruct Hx as [Hx|Hx]; [|exact (Hs x Hx Sx)]. exfalso. apply Hnd. exact (D x Hx Sx).
    - intros X. contradiction.
    - intros st H d Hd. destruct (Hst st H) as [H0 Hlt]. apply (Hg st H0 Hlt d). exact (G st H0 d Hd).
    - intros st H. destruct (Hst st H) as [H0 Hlt]. exact (Hjj st H0 Hlt).
  Qed.

  Lemma prog_keep lg new (td td' : list nat) st d : td' = td -> st < length lg ->
    In d td \/ J d st lg -> In d td' \/ J d st (lg ++ new).
  Proof. intros -> Hl [X|X]; [left; exact X|right; apply J_app; assumption]. Qed.

  Definition plain_pc (p : pc) : Prop :=
    match p with
    | NotStarted | Wait _ _ | Close _ _ _ => False
    | Unreg _ _ c | Done c => c <> 0%Z
    | _ => True
    end.

  Lemma TD_act_plain infl (dnp dnp' : nat -> Prop) ek lg new i t t' :
    TD infl dnp ek lg i t ->
    (forall x, In x new -> is_start i x = false /\ is_succ i x = false) ->
    tpc t <> Done 0 -> plain_pc (tpc t') -> todo t' = todo t ->
    asked t' = None \/ asked t' = asked t -> single_rest t' ->
    TD infl dnp' ek (lg ++ new) i t'.
  Proof.
    intros Ti Hn Hnd Hp Htd Ha Hr.
    apply (TD_act infl infl dnp dnp' ek ek lg new i t t' Ti); try assumption.
    - intros x Hx. apply Hn, Hx.
    - intros E. rewrite E in Hp. destruct Hp.
    - intros k e Hk. rewrite Htd. apply (t_ask _ _ _ _ _ _ Ti). destruct Ha as [Ha|Ha]; rewrite Ha in Hk; [discriminate Hk|exact Hk].
    - intros k e c E. rewrite E in Hp. destruct Hp.
    - intros x Hx Sx. rewrite (proj2 (Hn x Hx)) in Sx. discriminate Sx.
    - intros E. rewrite E in Hp. exfalso. apply Hp. reflexivity.
    - intros st Hs Hl d. apply prog_keep; [exact Htd|exact Hl].
    - intros st Hs Hl. destruct (tpc t'); try exact Logic.I; try contradiction.
    - intros k e E. rewrite E in Hp. exfalso. apply Hp. reflexivity.
  Qed.

  Lemma next_after_key_cases t : (exists k a r, todo t = k :: a :: r /\ next_after_key t = mkthr Idle (a :: r) (cancelled t) None)
    \/ ((forall k a r, todo t <> k :: a :: r) /\ next_after_key t = mkthr (Done 0) [] (cancelled t) None).
  Proof.
    unfold next_after_key. destruct (todo t) as [|k [|a r]].
    - right. split; [intros; discriminate|reflexivity].
    - right. split; [intros; discriminate|reflexivity].
    - left. exists k, a, r. auto.
  Qed.

  Lemma dn_upd s s' i t t' e0 : nth_error (thr s) i = Some t -> thr s' = upd i t' (thr s) ->
    (forall e1, nth_error (ents s') e1 = Some (true, true) -> nth_error (ents s) e1 = Some (true, true) \/ done_ok t = Some e1) ->
    dn s' e0 -> dn s e0 \/ done_ok t' = Some e0.
  Proof.
    intros Ht Hthr He [X|(j & tj & Hj & Hd)].
    - left. destruct (He e0 X) as [Y|Y]; [left; exact Y|right; exists i, t; auto].
    - rewrite Hthr in Hj. apply nth_error_upd_inv in Hj.
      destruct Hj as [[-> ->]|[_ Hj]]; [right; exact Hd|left; right; exists j, tj; auto].
  Qed.

  Lemma TD_next_key infl (dnp dnp' : nat -> Prop) ek lg i t k rest0 clk0 :
    TD infl dnp ek lg i t -> tpc t <> Done 0 -> todo t = k :: rest0 ->
    (forall st, started_at i lg st -> J k st lg) ->
    done_ok (next_after_key t) = None /\
    TD infl dnp' ek (lg ++ arrive i clk0 (tpc (next_after_key t))) i (next_after_key t).
  Proof.
    intros Ti Hnd Atd Jk. set (t' := next_after_key t).
    assert (Et' : (t' = mkthr (Done 0) [] (cancelled t) None /\ rest0 = []) \/
                  (t' = mkthr Idle rest0 (cancelled t) None /\ rest0 <> [])).
    { unfold t', next_after_key. rewrite Atd. destruct rest0; [left|right]; split; try reflexivity. discriminate. }
    split; [destruct Et' as [[-> _]|[-> _]]; reflexivity|].
    apply (TD_act infl infl dnp dnp' ek ek lg _ i t); [exact Ti|intros x Hx; eapply arrive_not_start; exact Hx
      |exact Hnd|destruct Et' as [[-> _]|[-> _]]; discriminate| | | | | | | |].
    - intros k0 e0 Ha. destruct Et' as [[Et' _]|[Et' _]]; rewrite Et' in Ha; discriminate Ha.
    - intros k0 e0 c0 Hc. destruct Et' as [[Et' _]|[Et' _]]; rewrite Et' in Hc; discriminate Hc.
    - destruct Et' as [[-> _]|[-> _]]; exact Logic.I.
    - intros x Hx Sx. apply (arrive_succ _ _ _ _ _ Hx Sx).
    - intros Hd. destruct Et' as [[-> _]|[Et' _]]; [reflexivity|rewrite Et' in Hd; discriminate].
    - intros st Hs Hl d0 [X|X]; [|right; apply J_app; assumption]. rewrite Atd in X. destruct X as [<-|X].
      + right. apply J_app; [apply Jk; exact Hs|exact Hl].
      + left. destruct Et' as [[_ ->]|[-> _]]; [destruct X|exact X].
    - intros st Hs Hl. destruct Et' as [[-> _]|[-> _]]; exact Logic.I.
    - intros k0 e0 Hc. destruct Et' as [[Et' _]|[Et' _]]; rewrite Et' in Hc; discriminate Hc.
  Qed.

  Lemma same_ek (ek : list nat) : exists suf, ek = ek ++ suf.
  Proof. exists []. symmetry. apply app_nil_r. Qed.

  Lemma dedup_frame s s1 ek ek' lg new i t t' :
    DIk ek s lg -> nth_error (thr s) i = Some t -> thr s1 = upd i t' (thr s) ->
    (forall x, In x new -> lg_caller x = i) -> (exists suf, ek' = ek ++ suf) ->
    length ek' = length (ents s1) ->
    (forall k e, lookup_key k (inflight s1) = Some e -> nth_error ek' e = Some k /\ nth_error (ents s1) e <> Some (true, true)) ->
    (forall k e, e < length ek -> lookup_key k (inflight s) <> Some e -> lookup_key k (inflight s1) <> Some e) ->
    (forall e1, nth_error (ents s1) e1 = Some (true, true) -> nth_error (ents s) e1 = Some (true, true) \/ done_ok t = Some e1) ->
    (forall e0, done_ok t' = Some e0 -> done_ok t = Some e0 \/
       exists k x, nth_error ek e0 = Some k /\ In x new /\ justifies k x = true) ->
    TD (inflight s1) (dn s1) ek' (lg ++ new) i t' ->
    DI s1 (lg ++ new).
  Proof.
    intros (G1 & G2 & G3 & T) Ht E1 Hc Hs H1 H2 Hi He Hd Ti.
    exists ek'. split; [exact H1|]. split; [intros k e X; exact (proj1 (H2 k e X))|]. split; [intros k e X; exact (proj2 (H2 k e X))|].
    refine (all_upd _ (thr s) i t' (thr s1) E1 Ti _). intros j tj Hne Hj.
    apply (TD_other (inflight s) _ (dn s) _ ek ek' lg new i j tj Hne Hc Hs Hi); [|exact (T j tj Hj)].
    intros e0 De. destruct (dn_upd s s1 i t t' e0 Ht E1 He De) as [X|X]; [left; exact X|].
    destruct (Hd e0 X) as [Y|Y]; [left; right; exists i, t; auto|right; exact Y].
  Qed.

  Lemma dedup_moved s s1 ek lg i t t' pre :
    DIk ek s lg -> nth_error (thr s) i = Some t ->
    thr s1 = upd i t' (thr s) -> inflight s1 = inflight s -> ents s1 = ents s ->
    (forall x, In x pre -> lg_caller x = i) ->
    (forall e0, done_ok t' = Some e0 -> done_ok t = Some e0 \/
       exists k x, nth_error ek e0 = Some k /\ In x (pre ++ arrive i (clk s) (tpc t')) /\ justifies k x = true) ->
    TD (inflight s) (dn s1) ek (lg ++ pre ++ arrive i (clk s) (tpc t')) i t' ->
    DI s1 (lg ++ pre ++ arrive i (clk s) (pc_of s1 i)).
  Proof.
    intros Dk Ht E1 Ei Ee Hc Hd Hi. pose proof Dk as (G1 & G2 & G3 & _).
    rewrite (pc_of_at s1 i t') by (rewrite E1; eapply nth_error_upd_eq; exact Ht).
    apply (dedup_frame s s1 ek ek lg _ i t t' Dk Ht E1); rewrite ?Ei, ?Ee;
      [|apply same_ek|exact G1|intros k e X; split; [exact (G2 k e X)|exact (G3 k e X)]|auto|intros e1 X; left; exact X|exact Hd|exact Hi].
    intros x Hx. apply in_app_or in Hx. destruct Hx as [Hx|Hx]; [apply Hc, Hx|eapply arrive_caller; exact Hx].
  Qed.

  Lemma dedup_plain s s1 ek lg i t t' pre :
    DIk ek s lg -> nth_error (thr s) i = Some t ->
    thr s1 = upd i t' (thr s) -> inflight s1 = inflight s -> ents s1 = ents s ->
    plain_of i pre -> tpc t <> Done 0 -> plain_pc (tpc t') -> todo t' = todo t ->
    asked t' = None \/ asked t' = asked t -> single_rest t' ->
    DI s1 (lg ++ pre ++ arrive i (clk s) (pc_of s1 i)).
  Proof.
    intros Dk Ht E1 Ei Ee Hq Hnd Hp Htd Ha Hr. pose proof Dk as (_ & _ & _ & T).
    apply (dedup_moved s s1 ek lg i t t' pre Dk Ht E1 Ei Ee).
    - intros x Hx. apply Hq, Hx.
    - intros e0 X. exfalso. unfold done_ok in X. destruct (tpc t'); try discriminate X; try contradiction.
      destruct (Z.eqb_spec c 0); [contradiction|discriminate X].
    - apply (TD_act_plain _ (dn s) _ ek lg _ i t t' (T i t Ht)); try assumption.
      intros x Hx. apply in_app_or in Hx. destruct Hx as [Hx|Hx]; [destruct (Hq x Hx) as (_ & Q1 & Q2); auto|].
      split; [eapply arrive_not_start; exact Hx|]. destruct (is_succ i x) eqn:Sx; [|reflexivity].
      destruct (arrive_succ _ _ _ _ _ Hx Sx) as [_ E]. rewrite E in Hp. exfalso. apply Hp. reflexivity.
  Qed.

  Lemma LastJ_new1 j d lg e : justifies d e = true -> lg_caller e = j -> LastJ j d (lg ++ [e]).
  Proof. intros Hj Hc. exists lg, e, []. repeat split; try assumption. intros x []. Qed.

  Lemma dedup_justified s s1 ek lg i t k e rest0 bs x :
    DIk ek s lg -> nth_error (thr s) i = Some t -> tpc t <> Done 0 -> nth_error ek e = Some k -> todo t = k :: rest0 ->
    thr s1 = upd i (mkthr (Unreg k e 0) (todo t) (cancelled t) bs) (thr s) -> inflight s1 = inflight s -> ents s1 = ents s ->
    plain_of i [x] -> justifies k x = true ->
    DI s1 (lg ++ [x] ++ arrive i (clk s) (pc_of s1 i)).
  Proof.
    intros Dk Ht Hnd Ak Atd E1 Ei Ee Hq Hj. destruct (Hq x (or_introl eq_refl)) as (Hc & Hns & Hnc).
    pose proof Dk as (_ & _ & _ & T).
    apply (dedup_moved s s1 ek lg i t _ [x] Dk Ht E1 Ei Ee); [intros y [<-|[]]; exact Hc| |].
    - intros e0 X. right. injection X as <-. exists k, x. split; [exact Ak|]. split; [left; reflexivity|exact Hj].
    - cbn [tpc arrive app].
      apply (TD_act (inflight s) (inflight s) (dn s) _ ek ek lg _ i t); [exact (T i t Ht)|intros y [<-|[]]; apply Hns
        |exact Hnd|discriminate| | |exact Logic.I|intros y [<-|[]] Sy; rewrite Hnc in Sy; discriminate Sy|discriminate| | |].
      + intros k0 e0 Ha. injection Ha as <- <-. split; [exact Ak|exists rest0; exact Atd].
      + intros k0 e0 c0 X. discriminate X.
      + intros st Hs Hl d. apply prog_keep; [reflexivity|exact Hl].
      + cbn [tpc]. intros st Hs Hl _. eapply J_new; [exact Hl|left; reflexivity|exact Hj].
      + intros k0 e0 X. injection X as <- <-. apply LastJ_new1; [exact Hj|exact Hc].
  Qed.

  Lemma dn_set_thr s i t t' e0 : nth_error (thr s) i = Some t -> dn (set_thr i t' s) e0 -> dn s e0 \/ done_ok t' = Some e0.
  Proof. intros Ht. apply (dn_upd s (set_thr i t' s) i t t' e0 Ht eq_refl). intros e1 X. left. exact X. Qed.

  Lemma ents_begin_base_dedup i t k e s : ents (begin_base MDedup i t [k] e k s) = ents s.
  Proof. reflexivity. Qed.

  Local Opaque begin_base.

  Lemma dedup_log_step s lg e s' : DI s lg -> step MDedup s e = Some s' -> DI s' (lg ++ emit MDedup s e).
  Proof.
    intros (ek & Dk) H. pose proof Dk as (G1 & G2 & G3 & T).
    unfold emit. rewrite H.
    destruct e as [i|i f|i|dt|i alt]; cbn [step] in H; cbn [emit_with].
    -
      destruct (nth_error (thr s) i) as [t|] eqn:Ht; [|discriminate].
      destruct (tpc t) eqn:Hp; try discriminate. injection H as <-.
      unfold set_pc. rewrite (pc_of_set_thr s i t _ Ht). cbn [tpc].
      match goal with |- context [arrive i (clk s) ?p] => set (p' := p) end.
      assert (Pc : p' = Idle \/ (p' = Done 0 /\ todo t = [])) by (unfold p'; destruct (todo t); auto).
      apply (dedup_frame s _ ek ek lg _ i t (mkthr p' (todo t) (cancelled t) (bset t)) Dk Ht);
        [reflexivity|intros x [<-|Hx]; [apply caller_start|eapply arrive_caller; exact Hx]|apply same_ek|exact G1
        |intros k e X; split; [exact (G2 k e X)|exact (G3 k e X)]|auto|intros e1 X; left; exact X| |].
      + intros e0 X. unfold done_ok in X. cbn [tpc] in X. destruct Pc as [Pc|[Pc _]]; rewrite Pc in X; discriminate.
      + destruct (T i t Ht) as [A B C D E F G Hj L]. constructor; cbn [tpc todo].
        * intros k e Ha. unfold asked in Ha. cbn [tpc] in Ha. destruct Pc as [->|[-> _]]; discriminate.
        * intros k e c Hc. destruct Pc as [Pc|[Pc _]]; rewrite Pc in Hc; discriminate.
        * unfold single_rest. cbn [tpc]. destruct Pc as [->|[-> _]]; exact Logic.I.
        * intros x Hx Sx. apply in_app_or in Hx. destruct Hx as [Hx|[<-|Hx]];
            [specialize (D x Hx Sx); rewrite Hp in D; discriminate|discriminate Sx|].
          apply (arrive_succ _ _ _ _ _ Hx Sx).
        * intros Hd. destruct Pc as [Pc|[_ Pc]]; [rewrite Pc in Hd; discriminate|exact Pc].
        * intros Hd. destruct Pc as [Pc|[Pc _]]; rewrite Pc in Hd; discriminate.
        * intros st Hs d Hd. left. rewrite (F Hp). exact Hd.
        * intros st Hs. destruct Pc as [->|[-> _]]; exact Logic.I.
        * intros k e Hc. destruct Pc as [Pc|[Pc _]]; rewrite Pc in Hc; discriminate.
    -
      destruct (nth_error (thr s) i) as [t|] eqn:Ht; [|discriminate].
      rewrite (pc_of_at s i t Ht).
      pose proof (T i t Ht) as Ti. destruct Ti as [A B C D E F G Hj L].
      destruct (tpc t) eqn:Hp; try discriminate.
      +
        destruct (A k e) as [Ak [rest0 Atd]]; [unfold asked; rewrite Hp; reflexivity|].
        cbn [returned].
        destruct (f =? 0)%Z eqn:Ef; cbn [negb] in H |- *.
        * apply Z.eqb_eq in Ef. subst f. destruct (memn k (snk s)) eqn:Ms; injection H as <-.
          -- (* the sink holds k: justified *)
             apply (dedup_justified s _ ek lg i t k e rest0 (bset t) _ Dk Ht);
               [rewrite Hp; discriminate|exact Ak|exact Atd|reflexivity|reflexivity|reflexivity|apply plain_ret|apply justifies_fm_present].
          -- (* not there: enter the base replicator *)
             destruct (thr_begin_base_dedup i t k e s) as [TB IB].
             apply (dedup_plain s _ ek lg i t _ _ Dk Ht TB IB (ents_begin_base_dedup i t k e s));
               [apply plain_ret|rewrite Hp; discriminate|exact Logic.I|reflexivity|right; unfold asked; rewrite Hp; reflexivity|reflexivity].
        * (* FindMissing failed *)
          injection H as <-. apply Z.eqb_neq in Ef.
          apply (dedup_plain s _ ek lg i t (mkthr (Unreg k e f) (todo t) (cancelled t) (bset t)) _ Dk Ht);
            [reflexivity|reflexivity|reflexivity|apply plain_ret|rewrite Hp; discriminate|exact Ef|reflexivity
            |right; unfold asked; rewrite Hp; reflexivity|exact Logic.I].
      +
        injection H as <-. cbn [returned].
        eapply (dedup_plain s _ ek lg i t _ _ Dk Ht); [reflexivity|reflexivity|reflexivity|apply plain_ret|rewrite Hp; discriminate
          |exact Logic.I|reflexivity|right; unfold asked; rewrite Hp; reflexivity|].
        unfold single_rest in *. rewrite Hp in C. exact C.
      +
        destruct (A d e) as [Ak [rest0 Atd]]; [unfold asked; rewrite Hp; reflexivity|].
        unfold single_rest in C. rewrite Hp in C. subst rest. cbn [returned].
        destruct ((if negb (f =? 0)%Z then f else b) =? 0)%Z eqn:Ec.
        * (* copied: justified *)
          apply Z.eqb_eq in Ec. rewrite Ec. injection H as <-. cbn [finish_base].
          apply (dedup_justified s _ ek lg i t d e rest0 None _ Dk Ht);
            [rewrite Hp; discriminate|exact Ak|exact Atd|reflexivity|reflexivity|reflexivity|apply plain_ret|apply justifies_put_ok].
        * injection H as <-. cbn [finish_base]. apply Z.eqb_neq in Ec.
          eapply (dedup_plain s _ ek lg i t (mkthr (Unreg d e _) (todo t) (cancelled t) None) _ Dk Ht);
            [reflexivity|reflexivity|reflexivity|apply plain_ret|rewrite Hp; discriminate|exact Ec|reflexivity
            |right; unfold asked; rewrite Hp; reflexivity|exact Logic.I].
    -
      destruct (nth_error (thr s) i) as [t|] eqn:Ht; [|discriminate].
      destruct (cancelled t); [discriminate|]. injection H as <-.
      set (t' := mkthr (tpc t) (todo t) true (bset t)).
      assert (Dn : forall e0, dn (set_thr i t' s) e0 -> dn s e0).
      { intros e0 De. destruct (dn_set_thr s i t _ e0 Ht De) as [X|X]; [exact X|].
        right. exists i, t. split; [exact Ht|exact X]. }
      apply (dedup_frame s _ ek ek lg [] i t t' Dk Ht);
        [reflexivity|intros x []|apply same_ek|exact G1|intros k e X; split; [exact (G2 k e X)|exact (G3 k e X)]|auto
        |intros e1 X; left; exact X|intros e0 X; left; exact X|].
      rewrite app_nil_r. destruct (T i t Ht) as [A B C D E F G Hj L]. constructor; try assumption.
      intros st Hs. specialize (Hj st Hs). cbn [t' tpc]. destruct (tpc t); try exact Hj. intros X. apply Hj, Dn, X.
    -
      injection H as <-. rewrite app_nil_r. exists ek. unfold DIk. cbn [ents inflight thr]. split; [exact G1|]. split; [exact G2|]. split; [exact G3|].
      intros j tj Hjj. destruct (T j tj Hjj) as [A B C D E F G Hj L]. constructor; try assumption.
    -
      destruct (nth_error (thr s) i) as [t|] eqn:Ht; [|discriminate].
      pose proof (T i t Ht) as Ti. destruct Ti as [A B C D E F G Hj L].
      assert (Giveup : tpc t <> Done 0 ->
                DI (set_pc i t (Done 1) s) (lg ++ arrive i (clk s) (pc_of (set_pc i t (Done 1) s) i))).
      { intros Hnd.
        apply (dedup_plain s _ ek lg i t (mkthr (Done 1) (todo t) (cancelled t) (bset t)) [] Dk Ht);
          [reflexivity|reflexivity|reflexivity|apply plain_nil|exact Hnd|discriminate|reflexivity|left; reflexivity|exact Logic.I]. }
      destruct (tpc t) eqn:Hp; destruct alt; try discriminate.
      + (* Idle: look the key up / register *)
        destruct (todo t) as [|k rest0] eqn:Atd; [discriminate|].
        destruct (lookup_key k (inflight s)) as [e|] eqn:Lk; injection H as <-.
        * (* found an in-flight entry: wait for it *)
          set (t' := mkthr (Wait k e) (todo t) (cancelled t) (bset t)).
          pose proof (G2 k e Lk) as Ak.
          assert (Dn : forall e0, dn (set_thr i t' s) e0 -> dn s e0).
          { intros e0 De. destruct (dn_set_thr s i t _ e0 Ht De) as [X|X]; [exact X|discriminate X]. }
          apply (dedup_moved s _ ek lg i t t' [] Dk Ht);
            [reflexivity|reflexivity|reflexivity|intros x []|intros e0 X; discriminate X|].
          -- cbn [t' tpc arrive app].
             apply (TD_act (inflight s) (inflight s) (dn s) _ ek ek lg [] i t); [exact (T i t Ht)|intros x []
               |rewrite Hp; discriminate|discriminate| | |exact Logic.I|intros x []|discriminate| | |].
             ++ intros k0 e0 Ha. injection Ha as <- <-. split; [exact Ak|exists rest0; exact Atd].
             ++ intros k0 e0 c0 Hc. discriminate Hc.
             ++ intros st Hs Hl d0. apply prog_keep; [reflexivity|exact Hl].
             ++ cbn [t' tpc]. intros st Hs Hl De. rewrite app_nil_r. apply Dn in De. destruct De as [De|(j & tj & Hjj & Dj)].
                ** exfalso. exact (G3 k e Lk De).
                ** destruct (T j tj Hjj) as [A' B' _ _ _ _ _ _ L']. unfold done_ok in Dj.
                   destruct (tpc tj) eqn:Hpj; try discriminate; destruct (c =? 0)%Z eqn:Ec; try discriminate; injection Dj as ->;
                     apply Z.eqb_eq in Ec; subst c.
                   --- destruct (A' k0 e) as [Ak' _]; [unfold asked; rewrite Hpj; reflexivity|].
                       rewrite Ak in Ak'. injection Ak' as <-. apply (LastJ_J j). exact (L' k e eq_refl).
                   --- destruct (A' k0 e) as [Ak' _]; [unfold asked; rewrite Hpj; reflexivity|].
                       rewrite Ak in Ak'. injection Ak' as <-. exfalso. exact (B' k e 0%Z eq_refl Lk).
             ++ intros k0 e0 Hc. discriminate Hc.
        * (* nobody is copying k: register a new entry, become its leader *)
          set (en := length (ents s)).
          set (t' := mkthr (Fm k en) (todo t) (cancelled t) (bset t)).
          cbn [thr]. rewrite (pc_of_at _ i t'); [|cbn [thr set_pc set_thr]; eapply nth_error_upd_eq; exact Ht].
          cbn [t' tpc arrive].
          assert (Een : en = length ek) by (unfold en; symmetry; exact G1).
          apply (dedup_frame s _ ek (ek ++ [k]) lg _ i t t' Dk Ht);
            [reflexivity|exact (arrive_caller i (clk s) (Fm k en))|exists [k]; reflexivity
            |cbn [ents]; rewrite !app_length, G1; reflexivity| | | |intros e0 X; discriminate X|].
          -- intros k2 e2 L2. cbn [inflight lookup_key ents] in *. destruct (Nat.eqb k2 k) eqn:E2.
             ++ apply Nat.eqb_eq in E2. subst k2. injection L2 as <-.
                split; [rewrite Een, nth_error_app2, Nat.sub_diag by lia; reflexivity
                       |unfold en; rewrite nth_error_app2, Nat.sub_diag by lia; cbn; discriminate].
             ++ pose proof (G2 k2 e2 L2) as X. pose proof (nth_error_some_lt _ _ _ X) as Xl.
                split; [rewrite nth_error_app1; [exact X|exact Xl]|rewrite nth_error_app1 by lia; exact (G3 k2 e2 L2)].
          -- intros k2 e2 Hl Hn. cbn [inflight lookup_key]. destruct (Nat.eqb k2 k); [|exact Hn]. intros X. injection X as <-. lia.
          -- cbn [ents]. intros e1 X. left. destruct (Nat.lt_ge_cases e1 (length (ents s))) as [Hl|Hl].
             ++ rewrite nth_error_app1 in X by exact Hl. exact X.
             ++ rewrite nth_error_app2 in X by exact Hl. destruct (e1 - length (ents s)) as [|[|?]]; cbn in X; discriminate.
          -- apply (TD_act (inflight s) _ (dn s) _ ek _ lg _ i t); [exact (T i t Ht)|intros x [<-|[]]; reflexivity
               |rewrite Hp; discriminate|discriminate| | |exact Logic.I|intros x [<-|[]] Sx; discriminate Sx|discriminate| | |].
             ++ intros k0 e0 Ha. injection Ha as <- <-. split; [|exists rest0; exact Atd].
                rewrite Een, nth_error_app2, Nat.sub_diag by lia. reflexivity.
             ++ intros k0 e0 c0 Hc. discriminate Hc.
             ++ intros st Hs Hl d0. apply prog_keep; [reflexivity|exact Hl].
             ++ cbn [t' tpc]. intros; exact Logic.I.
             ++ intros k0 e0 Hc. discriminate Hc.
      + (* Wait, cancelled *)
        destruct (cancelled t); [|discriminate]. injection H as <-.
        apply Giveup. discriminate.
      + (* Wait, woken *)
        destruct (A k e) as [Ak [rest0 Atd]]; [unfold asked; rewrite Hp; reflexivity|].
        destruct (nth_error (ents s) e) as [[[] []]|] eqn:Ee; try discriminate; injection H as <-.
        * (* the leader succeeded: next key, or return OK *)
          destruct (TD_next_key (inflight s) (dn s) (dn (set_thr i (next_after_key t) s)) ek lg i t k rest0 (clk s) (T i t Ht))
            as [Nd Tn]; [rewrite Hp; discriminate|exact Atd| |].
          { intros st Hs. specialize (Hj st Hs). apply Hj. left. exact Ee. }
          apply (dedup_moved s _ ek lg i t (next_after_key t) [] Dk Ht);
            [reflexivity|reflexivity|reflexivity|intros x []|intros e0 X; rewrite Nd in X; discriminate X|exact Tn].
        * (* the leader failed: try again *)
          apply (dedup_plain s _ ek lg i t (mkthr Idle (todo t) (cancelled t) (bset t)) [] Dk Ht);
            [reflexivity|reflexivity|reflexivity|apply plain_nil|rewrite Hp; discriminate|exact Logic.I|reflexivity|left; reflexivity|exact Logic.I].
      + (* Unreg: delete the in-flight entry *)
        destruct (A k e) as [Ak [rest0 Atd]]; [unfold asked; rewrite Hp; reflexivity|].
        injection H as <-. cbn [thr].
        set (t' := mkthr (Close k e c) (todo t) (cancelled t) (bset t)).
        rewrite (pc_of_at _ i t'); [|cbn [thr set_pc set_thr]; eapply nth_error_upd_eq; exact Ht].
        cbn [t' tpc arrive].
        assert (Lr : forall k2 e2, lookup_key k2 (remove_inflight k (inflight s)) = Some e2 -> lookup_key k2 (inflight s) = Some e2).
        { intros k2 e2 X. rewrite lookup_key_remove in X. destruct (Nat.eqb k2 k); [discriminate|exact X]. }
        apply (dedup_frame s _ ek ek lg [] i t t' Dk Ht);
          [reflexivity|intros x []|apply same_ek|exact G1|intros k2 e2 X; split; [apply G2|apply (G3 k2 e2)]; apply Lr, X
          |intros k2 e2 _ Hn X; apply Hn, Lr, X|intros e1 X; left; exact X
          |intros e0 X; left; unfold done_ok in *; rewrite Hp; exact X|].
        apply (TD_act (inflight s) _ (dn s) _ ek ek lg [] i t); [exact (T i t Ht)|intros x []
          |rewrite Hp; discriminate|discriminate| | |exact Logic.I|intros x []|discriminate| | |].
        * intros k0 e0 Ha. injection Ha as <- <-. split; [exact Ak|exists rest0; exact Atd].
        * intros k0 e0 c0 Hc. injection Hc as <- <- <-. cbn [inflight]. rewrite lookup_key_remove, Nat.eqb_refl. discriminate.
        * intros st Hs Hl d0. apply prog_keep; [reflexivity|exact Hl].
        * cbn [t' tpc]. intros st Hs Hl Hc. rewrite app_nil_r. specialize (Hj st Hs). exact (Hj Hc).
        * intros k0 e0 Hc. discriminate Hc.
      + (* Close: publish the outcome *)
        destruct (A k e) as [Ak [rest0 Atd]]; [unfold asked; rewrite Hp; reflexivity|].
        pose proof (B k e c eq_refl) as Bk.
        assert (G3' : forall v k2 e2, lookup_key k2 (inflight s) = Some e2 -> nth_error (upd e (true, v) (ents s)) e2 <> Some (true, true)).
        { intros v k2 e2 L2 X. apply nth_error_upd_inv in X. destruct X as [[-> _]|[_ X]]; [|exact (G3 k2 e2 L2 X)].
          pose proof (G2 k2 e L2) as Y. rewrite Ak in Y. injection Y as <-. exact (Bk L2). }
        destruct (c =? 0)%Z eqn:Ec; injection H as <-.
        * apply Z.eqb_eq in Ec. subst c.
          erewrite pc_of_set_thr; [|cbn [thr set_ent]; exact Ht].
          match goal with |- DI ?sx _ => set (s1 := sx) end.
          destruct (TD_next_key (inflight s) (dn s) (dn s1) ek lg i t k rest0 (clk s) (T i t Ht)) as [Nd Tn];
            [rewrite Hp; discriminate|exact Atd|intros st Hs; exact (Hj st Hs eq_refl)|].
          apply (dedup_frame s s1 ek ek lg _ i t (next_after_key t) Dk Ht);
            [reflexivity|intros x Hx; eapply arrive_caller; exact Hx|apply same_ek|cbn [s1 ents set_thr set_ent]; rewrite upd_length; exact G1
            |intros k2 e2 X; split; [exact (G2 k2 e2 X)|exact (G3' _ k2 e2 X)]|intros k2 e2 _ Hn; exact Hn|
            |intros e0 X; rewrite Nd in X; discriminate X|exact Tn].
          cbn [s1 ents set_thr set_ent]. intros e1 X. apply nth_error_upd_inv in X. destruct X as [[-> _]|[_ X]]; [right|left; exact X].
          unfold done_ok. rewrite Hp. reflexivity.
        * unfold set_pc. erewrite pc_of_set_thr; [|cbn [thr set_ent]; exact Ht]. cbn [tpc arrive].
          apply Z.eqb_neq in Ec.
          apply (dedup_frame s _ ek ek lg _ i t (mkthr (Done c) (todo t) (cancelled t) (bset t)) Dk Ht);
            [reflexivity|exact (arrive_caller i (clk s) (Done c))|apply same_ek|cbn [ents set_thr set_ent]; rewrite upd_length; exact G1
            |intros k2 e2 X; split; [exact (G2 k2 e2 X)|exact (G3' _ k2 e2 X)]|intros k2 e2 _ Hn; exact Hn|
            |intros e0 X; discriminate X|].
          -- cbn [ents set_thr set_ent]. intros e1 X. apply nth_error_upd_inv in X. destruct X as [[_ X]|[_ X]]; [discriminate X|left; exact X].
          -- apply (TD_act_plain _ (dn s) _ ek lg _ i t); [exact (T i t Ht)| |rewrite Hp; discriminate|exact Ec
               |reflexivity|left; reflexivity|exact Logic.I].
             intros x [<-|[]]. split; [reflexivity|]. destruct (is_succ i _) eqn:Sx; [|reflexivity].
             apply is_succ_done in Sx. destruct Sx as [_ Sx]. contradiction.
      + (* WaitSem, cancelled: not a step of this decorator *)
        destruct (cancelled t); discriminate.
      + (* WaitTok, cancelled (a defined step, not reachable here) *)
        destruct (cancelled t); [|discriminate]. injection H as <-.
        apply Giveup. discriminate.
  Qed.

  Local Transparent begin_base.

  Lemma DI_init source sink : DI (init_state sets source sink) [].
  Proof.
    exists []. unfold DIk. split; [reflexivity|]. split; [intros k e X; discriminate X|]. split; [intros k e X; discriminate X|].
    intros j tj Hj. apply init_thread_at in Hj. subst tj.
    constructor; unfold asked, single_rest; cbn [init_thread tpc todo];
      first [ exact Logic.I | reflexivity | intros st Hs; discriminate Hs
            | intros k e X; discriminate X | intros k e c X; discriminate X | intros X; discriminate X | intros x [] ].
  Qed.

  Theorem dedup_clause24 source sink tr s : run MDedup (init_state sets source sink) tr = Some s ->
    clause24_ok sets (tlog MDedup (init_state sets source sink) tr).
  Proof.
    intros H. pose proof (tlog_inv MDedup DI _ (DI_init source sink) dedup_log_step tr s H) as (ek & _ & _ & _ & T).
    intros i p st Hi Hs Hst.
    destruct (nth_error (thr s) i) as [t|] eqn:Ht.
    2: { apply nth_error_None in Ht. rewrite (run_length _ _ _ _ H), init_length in Ht. lia. }
    destruct (T i t Ht) as [_ _ _ D E _ G _ _].
    apply iw_some_in in Hs. destruct Hs as (x & Hx & Sx). specialize (D x Hx Sx). specialize (E D).
    apply forallb_forall. intros d Hd. destruct (G st Hst d Hd) as [X|X]; [rewrite E in X; destruct X|exact X].
  Qed.
End Dedup.

Lemma notify_keep k fuel s i t : QW s -> nth_error (thr s) i = Some t -> tpc t <> WaitSem ->
  nth_error (thr (notify fuel k s)) i = Some t.
Proof.
  intros Q Hi Hw. destruct (nth_error (thr (notify fuel k s)) i) as [t'|] eqn:E.
  - destruct (notify_frame k fuel s i t' Q E) as (tj & Hj & D). rewrite Hi in Hj. injection Hj as <-.
    destruct D as [->|[X _]]; [reflexivity|contradiction].
  - apply nth_error_None in E. rewrite notify_length in E. apply nth_error_None in E. congruence.
Qed.

Lemma QW_upd s s1 i t x : QW s -> nth_error (thr s) i = Some t -> tpc t <> WaitSem ->
  thr s1 = upd i x (thr s) -> semq s1 = semq s -> QW s1.
Proof.
  intros [N Q] Hi Hw Ht Hq. split; rewrite Hq; [exact N|]. intros j tj Hin Hn. rewrite Ht in Hn.
  apply nth_error_upd_inv in Hn. destruct Hn as [[-> _]|[_ Hn]]; [|apply (Q j tj Hin Hn)].
  exfalso. apply Hw. apply (Q i t Hin Hi).
Qed.

Lemma QW_dequeue s s1 i x : QW s -> thr s1 = upd i x (thr s) -> semq s1 = remove_nat i (semq s) -> QW s1.
Proof.
  intros [N Q] Ht Hq. split; rewrite Hq; [apply remove_nat_nodup, N|]. intros j tj Hin Hn.
  apply remove_nat_in in Hin. destruct Hin as [Hne Hin]. rewrite Ht in Hn.
  apply nth_error_upd_inv in Hn. destruct Hn as [[-> _]|[_ Hn]]; [contradiction|apply (Q j tj Hin Hn)].
Qed.

Section Kind.
  Variable sets : list (list nat).
  Variable pcok : thread -> Prop.
  (* [Jst d st lg]: object d is justified for a caller that started at st;
     [Own j d lg]: caller j has put d itself; [track]: whether [bset] is constrained *)
  Variable Jst : nat -> nat -> list sx -> Prop.
  Variable Own : nat -> nat -> list sx -> Prop.
  Variable track : bool.
  Hypothesis Jst_app : forall d st lg new, Jst d st lg -> st < length lg -> Jst d st (lg ++ new).
  Hypothesis Own_app : forall j d lg new, Own j d lg -> Own j d (lg ++ new).

  Definition covers (j : nat) (td : list nat) (p : pc) (st : nat) (lg : list sx) : Prop :=
    match p with
    | Get d rest _ | Put d _ rest _ => forall d', In d' td -> d' = d \/ In d' rest \/ Own j d' lg \/ Jst d' st lg
    | Done c => c = 0%Z -> forall d', In d' td -> Jst d' st lg
    | _ => True
    end.

  Definition tracks (j : nat) (p : pc) (bs : option (list nat)) (lg : list sx) : Prop :=
    if track then
      match p with
      | Get d rest _ | Put d _ rest _ => forall ds, bs = Some ds -> forall d', In d' ds -> d' = d \/ In d' rest \/ Own j d' lg
      | _ => True
      end
    else True.

  Definition TK (j : nat) (tj : thread) (lg : list sx) : Prop :=
    pcok tj /\ todo tj = nth j sets [] /\
    (forall x, In x lg -> is_succ j x = true -> tpc tj = Done 0) /\
    (forall st, started_at j lg st -> covers j (todo tj) (tpc tj) st lg) /\
    tracks j (tpc tj) (bset tj) lg.

  Definition allK (s : cstate) (lg : list sx) : Prop := forall j tj, nth_error (thr s) j = Some tj -> TK j tj lg.

  Lemma covers_app j td p st lg new : covers j td p st lg -> st < length lg -> covers j td p st (lg ++ new).
  Proof.
    intros D Hl. destruct p; try exact D; cbn [covers] in *.
    - intros d' Hd. destruct (D d' Hd) as [F|[F|[F|F]]]; auto.
    - intros d' Hd. destruct (D d' Hd) as [F|[F|[F|F]]]; auto.
    - intros Hc d' Hd. apply Jst_app; [apply D; assumption|exact Hl].
  Qed.

  Lemma tracks_app j p bs lg new : tracks j p bs lg -> tracks j p bs (lg ++ new).
  Proof.
    unfold tracks. destruct track; [|exact (fun E => E)]. destruct p; try exact (fun E => E).
    - intros E ds Hb d' Hd. destruct (E ds Hb d' Hd) as [F|[F|F]]; auto.
    - intros E ds Hb d' Hd. destruct (E ds Hb d' Hd) as [F|[F|F]]; auto.
  Qed.

  Lemma TK_other j tj lg new : (forall x, In x new -> lg_caller x <> j) -> TK j tj lg -> TK j tj (lg ++ new).
  Proof.
    intros Hn (A & B & C & D & E). split; [exact A|]. split; [exact B|]. split; [|split; [|apply tracks_app, E]].
    - intros x Hx Sx. apply in_app_or in Hx. destruct Hx as [Hx|Hx]; [exact (C x Hx Sx)|].
      apply is_succ_caller in Sx. exfalso. exact (Hn x Hx Sx).
    - intros st Hst. apply started_app_inv in Hst; [|intros x Hx; apply not_caller_not_start, Hn, Hx].
      apply covers_app; [exact (D st Hst)|eapply started_lt; exact Hst].
  Qed.

  Lemma TK_init j : pcok (init_thread (nth j sets [])) -> TK j (init_thread (nth j sets [])) [].
  Proof.
    intros Hp. split; [exact Hp|]. split; [reflexivity|]. split; [intros x []|].
    split; [intros st Hst; exact Logic.I|unfold tracks; destruct track; exact Logic.I].
  Qed.

  Lemma allK_start s s1 lg i t c :
    allK s lg -> nth_error (thr s) i = Some t -> tpc t = NotStarted ->
    pcok (mkthr Idle (todo t) (cancelled t) (bset t)) ->
    thr s1 = upd i (mkthr Idle (todo t) (cancelled t) (bset t)) (thr s) ->
    allK s1 (lg ++ [ev_start i c]).
  Proof.
    intros T Ht Hp Hl E1. refine (all_upd (fun j tj => TK j tj _) (thr s) i _ (thr s1) E1 _ _).
    - destruct (T i t Ht) as (_ & B & C & _ & _). split; [exact Hl|]. split; [exact B|]. split; [|split].
      + intros x Hx Sx. apply in_app_or in Hx. destruct Hx as [Hx|[<-|[]]]; [|discriminate Sx].
        specialize (C x Hx Sx). rewrite Hp in C. discriminate.
      + intros st Hst. exact Logic.I.
      + unfold tracks. destruct track; exact Logic.I.
    - intros j tj Hne Hj. apply TK_other; [|exact (T j tj Hj)].
      intros x [<-|[]]. rewrite caller_start. intros E. apply Hne. symmetry. exact E.
  Qed.

  Lemma allK_moved s s1 lg i t t' pre c :
    allK s lg -> nth_error (thr s) i = Some t -> thr s1 = upd i t' (thr s) ->
    plain_of i pre -> tpc t <> Done 0 -> pcok t' -> todo t' = todo t ->
    (forall st, started_at i lg st -> st < length lg ->
       covers i (todo t) (tpc t') st (lg ++ pre ++ arrive i c (tpc t'))) ->
    tracks i (tpc t') (bset t') (lg ++ pre ++ arrive i c (tpc t')) ->
    allK s1 (lg ++ pre ++ arrive i c (tpc t')).
  Proof.
    intros T Ht E1 Hq Hnd Hl Htd Hb He.
    assert (Hc : forall x, In x (pre ++ arrive i c (tpc t')) -> lg_caller x = i /\ is_start i x = false).
    { intros x Hx. apply in_app_or in Hx. destruct Hx as [Hx|Hx]; [destruct (Hq x Hx) as (Q1 & Q2 & _); auto|].
      split; [eapply arrive_caller|eapply arrive_not_start]; exact Hx. }
    refine (all_upd (fun j tj => TK j tj _) (thr s) i t' (thr s1) E1 _ _).
    - destruct (T i t Ht) as (_ & B & C & D & _). split; [exact Hl|]. split; [rewrite Htd; exact B|]. split; [|split; [|exact He]].
      + intros x Hx Sx. apply in_app_or in Hx. destruct Hx as [Hx|Hx]; [exfalso; apply Hnd; exact (C x Hx Sx)|].
        apply in_app_or in Hx. destruct Hx as [Hx|Hx]; [|apply (arrive_succ _ _ _ _ _ Hx Sx)].
        rewrite (proj2 (proj2 (Hq x Hx))) in Sx. discriminate Sx.
      + intros st Hst. apply started_app_inv in Hst; [|intros x Hx; apply Hc, Hx].
        rewrite Htd. apply Hb; [exact Hst|eapply started_lt; exact Hst].
    - intros j tj Hne Hj. apply TK_other; [|exact (T j tj Hj)]. intros x Hx E. apply Hne. rewrite <- E. exact (proj1 (Hc x Hx)).
  Qed.

  Lemma allK_clause s lg i p st d :
    allK s lg -> length (thr s) = length sets -> i < length sets ->
    index_where (is_succ i) lg 0 = Some p -> started_at i lg st -> In d (nth i sets []) -> Jst d st lg.
  Proof.
    intros T Hlen Hi Hs Hst Hd.
    destruct (nth_error (thr s) i) as [t|] eqn:Ht; [|apply nth_error_None in Ht; lia].
    destruct (T i t Ht) as (_ & Td & C & D & _).
    apply iw_some_in in Hs. destruct Hs as (x & Hx & Sx). specialize (D st Hst). rewrite (C x Hx Sx) in D.
    apply D; [reflexivity|rewrite Td; exact Hd].
  Qed.
End Kind.

(** C17, clause 24 for the concurrency-limiting replicator: on the event log of
    every trace of the model, a caller that returned success has, for every
    object of its set, a successful sink.Put of its own after its start.

    Invariant (per caller j, log so far [lg]): while inside the base
    replicator at [Get d rest] / [Put d _ rest], every object of the caller's
    set is d, or still in [rest], or already justified after the caller's
    start; at [Done 0] all of them are justified; a success event of j in the
    log means j is at [Done 0].  The semaphore hand-over ([notify]) only turns
    waiting callers into granted ones. *)
Section Limit.
  Variable lim : nat.
  Variable sets : list (list nat).

  Definition TL := TK sets (fun _ => True) J (fun _ _ _ => False) false.
  Definition allT := allK sets (fun _ => True) J (fun _ _ _ => False) false.
  Definition allT_moved := allK_moved sets (fun _ => True) J (fun _ _ _ => False) false J_app (fun _ _ _ _ F => F).
  Definition LI (s : cstate) (lg : list sx) : Prop := linv lim s /\ allT s lg.

  Lemma TL_granted j tj lg : tpc tj = WaitSem -> TL j tj lg -> TL j (mkthr Granted (todo tj) (cancelled tj) (bset tj)) lg.
  Proof.
    intros Hp (A & B & C & D & E). split; [exact Logic.I|]. split; [exact B|]. split; [|split; [|exact Logic.I]].
    - intros x Hx Sx. specialize (C x Hx Sx). rewrite Hp in C. discriminate.
    - intros st Hst. exact Logic.I.
  Qed.

  Lemma limit_moved s s1 fuel lg i t t' pre :
    QW s -> allT s lg -> nth_error (thr s) i = Some t ->
    thr s1 = upd i t' (thr s) ->
    (tpc t <> WaitSem /\ semq s1 = semq s) \/ semq s1 = remove_nat i (semq s) ->
    tpc t' <> WaitSem ->
    plain_of i pre -> tpc t <> Done 0 -> todo t' = todo t ->
    (forall st, started_at i lg st -> st < length lg ->
       covers J (fun _ _ _ => False) i (todo t) (tpc t') st (lg ++ pre ++ arrive i (clk s) (tpc t'))) ->
    allT (notify fuel lim s1) (lg ++ pre ++ arrive i (clk s) (pc_of (notify fuel lim s1) i)).
  Proof.
    intros Q T Ht E1 Hq Hw Hpre Hnd Htd Hb.
    assert (Q1 : QW s1).
    { destruct Hq as [[Hn Hq]|Hq]; [exact (QW_upd s s1 i t t' Q Ht Hn E1 Hq)|exact (QW_dequeue s s1 i t' Q E1 Hq)]. }
    rewrite (pc_of_at _ i t');
      [|apply notify_keep; [exact Q1|rewrite E1; eapply nth_error_upd_eq; exact Ht|exact Hw]].
    pose proof (allT_moved s s1 lg i t t' pre (clk s) T Ht E1 Hpre Hnd Logic.I Htd Hb Logic.I) as T1.
    intros j tj' Hj. apply (notify_frame lim fuel s1 j tj' Q1) in Hj. destruct Hj as (tj & Hj & D).
    destruct D as [->|[Hw' ->]]; [exact (T1 j tj Hj)|apply TL_granted; [exact Hw'|exact (T1 j tj Hj)]].
  Qed.

  Lemma limit_begin s s0 lg i t :
    QW s -> allT s lg -> nth_error (thr s) i = Some t -> tpc t <> WaitSem -> tpc t <> Done 0 ->
    thr s0 = thr s -> semq s0 = semq s -> clk s0 = clk s ->
    allT (begin_base (MLimit lim) i t (todo t) 0 0 s0)
         (lg ++ arrive i (clk s) (pc_of (begin_base (MLimit lim) i t (todo t) 0 0 s0) i)).
  Proof.
    intros Q T Ht Hw Hnd E0 Eq Ek. unfold begin_base. destruct (todo t) as [|d rest] eqn:Etd.
    - cbn [finish_base]. unfold sem_release.
      apply (limit_moved s _ _ lg i t (mkthr (Done 0) [] (cancelled t) None) [] Q T Ht);
        [cbn [thr set_thr note_max]; rewrite upd_upd, E0; reflexivity|left; split; [exact Hw|exact Eq]
        |discriminate|apply plain_nil|exact Hnd|symmetry; exact Etd|].
      rewrite Etd. intros st _ _ _ d' [].
    - apply (limit_moved s _ 0 lg i t (mkthr (Get d rest 0) (d :: rest) (cancelled t) (Some (d :: rest))) [] Q T Ht);
        [cbn [thr set_thr note_max]; rewrite upd_upd, E0; reflexivity|left; split; [exact Hw|exact Eq]
        |discriminate|apply plain_nil|exact Hnd|symmetry; exact Etd|].
      rewrite Etd. intros st _ _ d' [<-|Hd]; auto.
  Qed.

  Local Arguments notify : simpl never.

  Lemma limit_log_step s lg e s' : LI s lg -> step (MLimit lim) s e = Some s' -> LI s' (lg ++ emit (MLimit lim) s e).
  Proof.
    intros (X & T) H. split; [eapply limit_step_inv; eassumption|].
    pose proof (linv_QW _ _ X) as Q.
    unfold emit in *. rewrite H in *.
    destruct e as [i|i f|i|dt|i alt]; cbn [step] in H; cbn [emit_with actor] in *.
    -
      destruct (nth_error (thr s) i) as [t|] eqn:Ht; [|discriminate].
      destruct (tpc t) eqn:Hp; try discriminate. injection H as <-.
      unfold set_pc. rewrite (pc_of_set_thr s i t _ Ht).
      apply (allK_start sets (fun _ => True) J (fun _ _ _ => False) false J_app (fun _ _ _ _ F => F) s _ lg i t (clk s) T Ht Hp Logic.I).
      reflexivity.
    -
      destruct (nth_error (thr s) i) as [t|] eqn:Ht; [|discriminate].
      rewrite (pc_of_at s i t Ht).
      destruct (T i t Ht) as (_ & _ & _ & D & _).
      destruct (tpc t) eqn:Hp; try discriminate.
      +
        injection H as <-.
        eapply (limit_moved s _ 0 lg i t _ _ Q T Ht);
          [reflexivity|left; split; [rewrite Hp; discriminate|reflexivity]|discriminate|apply plain_returned
          |rewrite Hp; discriminate|reflexivity|].
        intros st Hst Hl. apply (covers_app J (fun _ _ _ => False) J_app (fun _ _ _ _ F => F)); [exact (D st Hst)|exact Hl].
      +
        destruct ((if negb (f =? 0)%Z then f else b) =? 0)%Z eqn:Ec.
        * cbn [returned]. apply Z.eqb_eq in Ec. rewrite Ec.
          assert (Jd : forall st, st < length lg -> forall tl, J d st (lg ++ ev_ret i 0 1 d 0 [] (clk s) :: tl)).
          { intros st Hl tl. eapply J_new; [exact Hl|left; reflexivity|apply justifies_put_ok]. }
          destruct rest as [|d' rest']; injection H as <-.
          -- (* last object copied: the base replicator returns OK *)
             cbn [finish_base]. unfold sem_release.
             apply (limit_moved s _ _ lg i t (mkthr (Done 0) (todo t) (cancelled t) None) _ Q T Ht);
               [reflexivity|left; split; [rewrite Hp; discriminate|reflexivity]|discriminate|apply plain_ret
               |rewrite Hp; discriminate|reflexivity|].
             intros st Hst Hl _ d' Hd.
             destruct (D st Hst d' Hd) as [->|[[]|[[]|E]]]; [apply Jd; exact Hl|apply J_app; assumption].
          -- apply (limit_moved s _ 0 lg i t (mkthr (Get d' rest' e) (todo t) (cancelled t) (bset t)) _ Q T Ht);
               [reflexivity|left; split; [rewrite Hp; discriminate|reflexivity]|discriminate|apply plain_ret
               |rewrite Hp; discriminate|reflexivity|].
             intros st Hst Hl x Hx.
             destruct (D st Hst x Hx) as [->|[[->|E]|[[]|E]]]; [right; right; right; apply Jd; exact Hl|left; reflexivity|right; left; exact E|].
             right. right. right. apply J_app; assumption.
        * injection H as <-.
          cbn [finish_base]. unfold sem_release.
          eapply (limit_moved s _ _ lg i t (mkthr (Done _) (todo t) (cancelled t) None) _ Q T Ht);
            [reflexivity|left; split; [rewrite Hp; discriminate|reflexivity]|discriminate|apply plain_returned
            |rewrite Hp; discriminate|reflexivity|].
          intros st Hst Hl Hc. rewrite Hc in Ec. discriminate Ec.
    -
      destruct (nth_error (thr s) i) as [t|] eqn:Ht; [|discriminate].
      destruct (cancelled t); [discriminate|]. injection H as <-.
      rewrite app_nil_r.
      refine (all_upd (fun j tj => TL j tj lg) (thr s) i (mkthr (tpc t) (todo t) true (bset t)) _ eq_refl
                (T i t Ht) (fun j tj _ Hj => T j tj Hj)).
    -
      injection H as <-. rewrite app_nil_r. exact T.
    -
      destruct (nth_error (thr s) i) as [t|] eqn:Ht; [|discriminate].
      pose proof (lpc_at lim s i t X Ht) as Lt. unfold lpc in Lt.
      assert (Giveup : forall s1 cf fuel, thr s1 = upd i (mkthr (Done 1) (todo t) cf (bset t)) (thr s) ->
                (tpc t <> WaitSem /\ semq s1 = semq s) \/ semq s1 = remove_nat i (semq s) -> tpc t <> Done 0 ->
                allT (notify fuel lim s1) (lg ++ arrive i (clk s) (pc_of (notify fuel lim s1) i))).
      { intros s1 cf fuel E1 Hq Hnd.
        apply (limit_moved s s1 fuel lg i t _ [] Q T Ht E1 Hq);
          [discriminate|apply plain_nil|exact Hnd|reflexivity|].
        intros st _ _ X1. discriminate X1. }
      destruct (tpc t) eqn:Hp; try contradiction; destruct alt; try discriminate.
      +
        destruct (cancelled t) eqn:Hc.
        * injection H as <-.
          apply (Giveup _ (cancelled t) 0); [reflexivity|left; split; [discriminate|reflexivity]|discriminate].
        * destruct (Nat.ltb (cur s) lim && match semq s with [] => true | _ => false end); injection H as <-.
          -- (* a permit is free: enters the base replicator *)
             apply (limit_begin s _ lg i t Q T Ht); [rewrite Hp; discriminate|rewrite Hp; discriminate|reflexivity..].
          -- (* queued on the semaphore *)
             cbn [thr]. rewrite (pc_of_at _ i (mkthr WaitSem (todo t) (cancelled t) (bset t)));
               [|cbn [thr set_pc set_thr]; eapply nth_error_upd_eq; exact Ht].
             apply (allT_moved s _ lg i t (mkthr WaitSem (todo t) (cancelled t) (bset t)) [] (clk s) T Ht);
               [reflexivity|apply plain_nil|rewrite Hp; discriminate|exact Logic.I|reflexivity|intros; exact Logic.I|exact Logic.I].
      + (* WaitSem, cancelled *)
        destruct (cancelled t); [|discriminate]. injection H as <-.
        apply (Giveup _ (cancelled t)); [reflexivity|right; reflexivity|discriminate].
      +
        destruct (cancelled t) eqn:Hc; injection H as <-.
        * unfold sem_release. apply (Giveup _ (cancelled t)); [reflexivity|left; split; [discriminate|reflexivity]|discriminate].
        * apply (limit_begin s _ lg i t Q T Ht); [rewrite Hp; discriminate|rewrite Hp; discriminate|reflexivity..].
  Qed.

  Lemma LI_init source sink : LI (init_state sets source sink) [].
  Proof.
    split; [apply linv_init|]. intros j tj Hj. apply init_thread_at in Hj. subst tj.
    apply TK_init. exact Logic.I.
  Qed.

  Theorem limit_clause24 source sink tr s : run (MLimit lim) (init_state sets source sink) tr = Some s ->
    clause24_ok sets (tlog (MLimit lim) (init_state sets source sink) tr).
  Proof.
    intros H. pose proof (tlog_inv (MLimit lim) LI _ (LI_init source sink) limit_log_step tr s H) as (_ & T).
    intros i p st Hi Hs Hst. apply forallb_forall. intros d Hd.
    apply (allK_clause sets (fun _ => True) J (fun _ _ _ => False) false s _ i p st d T); try assumption.
    rewrite (run_length _ _ _ _ H). apply init_length.
  Qed.
End Limit.

(** C17, clause 25 for the queued replicator: on the event log of every trace
    of the model, a caller that returned success has, for every object of its
    set, a successful sink.Put by some caller that returned success at a clock
    reading no more than [dur] before the asking caller's start.

    Invariant: (clock) a caller's start time is at most the clock; (cache)
    every insertion time in the existence cache is the clock reading of a
    success event of a caller that put the object into the sink; (per caller)
    inside the base replicator every object of the set is the current one,
    still to come, already put by this caller, or already known as copied;
    [bset] - what will be recorded in the cache - holds only objects current,
    to come or put by this caller. *)

Definition qpc (t : thread) : Prop :=
  match tpc t with Wait _ _ | Fm _ _ | Unreg _ _ _ | Close _ _ _ | WaitSem | Granted => False | _ => True end.

Definition PutOk (j d : nat) (lg : list sx) : Prop := exists e, In e lg /\ put_ok d e = true /\ lg_caller e = j.

Definition CWT (k : nat) (t0 : N) (lg : list sx) : Prop :=
  exists e f, In e lg /\ In f lg /\ put_ok k e = true /\ is_succ (lg_caller e) f = true /\ sx_N (sx_nth f 3) = t0.

Lemma PutOk_app j d lg new : PutOk j d lg -> PutOk j d (lg ++ new).
Proof. intros (e & He & P & C). exists e. split; [apply in_or_app; left; exact He|auto]. Qed.

Lemma CWT_app k t0 lg new : CWT k t0 lg -> CWT k t0 (lg ++ new).
Proof.
  intros (e & f & He & Hf & P & S & T). exists e, f.
  split; [apply in_or_app; left; exact He|]. split; [apply in_or_app; left; exact Hf|auto].
Qed.

Section Queued.
  Variable size : nat.
  Variable dur : N.
  Variable sets : list (list nat).

  Definition CW (d st : nat) (lg : list sx) : Prop := copied_within d dur (tstart_of lg st) lg = true.

  Lemma CW_app d st lg new : CW d st lg -> st < length lg -> CW d st (lg ++ new).
  Proof. unfold CW. intros H Hl. rewrite tstart_app by exact Hl. apply copied_within_app. exact H. Qed.

  Lemma CWT_CW k t0 lg st : CWT k t0 lg -> (tstart_of lg st <= t0 + dur)%N -> CW k st lg.
  Proof.
    intros (e & f & He & Hf & P & S & T) Hle. unfold CW. apply (copied_within_intro k dur _ lg e f He Hf P S). rewrite T. exact Hle.
  Qed.

  Definition allQ := allK sets qpc CW PutOk true.
  Definition allQ_moved := allK_moved sets qpc CW PutOk true CW_app PutOk_app.
  Definition clockQ (s : cstate) (lg : list sx) : Prop := forall j st, started_at j lg st -> (tstart_of lg st <= clk s)%N.
  Definition cacheQ (s : cstate) (lg : list sx) : Prop :=
    exists recs, times_in recs (qcache s) /\ forall k t0, In (k, t0) recs -> CWT k t0 lg.
  Definition QI (s : cstate) (lg : list sx) : Prop := allQ s lg /\ clockQ s lg /\ cacheQ s lg.

  Lemma clockQ_app s s' lg new : clockQ s lg -> (clk s <= clk s')%N -> (forall j x, In x new -> is_start j x = false) ->
    clockQ s' (lg ++ new).
  Proof.
    intros Hc Hle Hn j st Hst. apply started_app_inv in Hst; [|intros x Hx; apply Hn, Hx].
    rewrite tstart_app by (eapply started_lt; exact Hst). specialize (Hc j st Hst). lia.
  Qed.

  Lemma cacheQ_app s s' lg new : cacheQ s lg -> times (qcache s') = times (qcache s) -> cacheQ s' (lg ++ new).
  Proof.
    intros (recs & Ti & Hr) E. exists recs. split; [unfold times_in; rewrite E; exact Ti|].
    intros k t0 Hk. apply CWT_app. exact (Hr k t0 Hk).
  Qed.

  Lemma cached_CW s lg st d t0 : cacheQ s lg -> lookup d (times (qcache s)) = Some t0 -> ExistenceCache.fresh dur (clk s) t0 = true ->
    (tstart_of lg st <= clk s)%N -> CW d st lg.
  Proof.
    intros (recs & Ti & Hr) L F Hle. apply (CWT_CW d t0); [apply Hr, Ti, L|].
    unfold ExistenceCache.fresh in F. apply N.leb_le in F. lia.
  Qed.

  Lemma queued_moved s s1 lg i t t' pre :
    QI s lg -> nth_error (thr s) i = Some t -> thr s1 = upd i t' (thr s) ->
    clk s1 = clk s -> times (qcache s1) = times (qcache s) ->
    plain_of i pre -> tpc t <> Done 0 -> qpc t' -> todo t' = todo t ->
    (forall st, started_at i lg st -> st < length lg ->
       covers CW PutOk i (todo t) (tpc t') st (lg ++ pre ++ arrive i (clk s) (tpc t'))) ->
    tracks PutOk true i (tpc t') (bset t') (lg ++ pre ++ arrive i (clk s) (tpc t')) ->
    QI s1 (lg ++ pre ++ arrive i (clk s) (pc_of s1 i)).
  Proof.
    intros (T & K & Ca) Ht E1 Ek Ec Hp Hnd Hl Htd Hb He.
    rewrite (pc_of_at s1 i t') by (rewrite E1; eapply nth_error_upd_eq; exact Ht).
    split; [|split].
    - exact (allQ_moved s s1 lg i t t' pre (clk s) T Ht E1 Hp Hnd Hl Htd Hb He).
    - apply (clockQ_app s); [exact K|rewrite Ek; lia|].
      intros j x Hx. apply in_app_or in Hx. destruct Hx as [Hx|Hx]; [apply Hp, Hx|eapply arrive_not_start; exact Hx].
    - apply (cacheQ_app s); [exact Ca|exact Ec].
  Qed.

  Lemma queued_log_step s lg e s' : QI s lg -> step (MQueued size dur) s e = Some s' -> QI s' (lg ++ emit (MQueued size dur) s e).
  Proof.
    intros QIs H. pose proof QIs as (T & K & Ca).
    unfold emit. rewrite H.
    destruct e as [i|i f|i|dt|i alt]; cbn [step] in H; cbn [emit_with].
    -
      destruct (nth_error (thr s) i) as [t|] eqn:Ht; [|discriminate].
      destruct (tpc t) eqn:Hp; try discriminate. injection H as <-.
      unfold set_pc. rewrite (pc_of_set_thr s i t _ Ht). cbn [tpc arrive].
      split; [|split].
      + apply (allK_start sets qpc CW PutOk true CW_app PutOk_app s _ lg i t (clk s) T Ht Hp Logic.I). reflexivity.
      + intros j st Hst. apply started_new in Hst; [|intros x []]. cbn [clk set_thr].
        destruct Hst as [Hst|(-> & -> & _)]; [rewrite tstart_app by (eapply started_lt; exact Hst); exact (K j st Hst)|].
        rewrite tstart_new. lia.
      + eapply cacheQ_app; [exact Ca|reflexivity].
    -
      destruct (nth_error (thr s) i) as [t|] eqn:Ht; [|discriminate].
      rewrite (pc_of_at s i t Ht).
      destruct (T i t Ht) as (_ & _ & _ & D & E).
      destruct (tpc t) eqn:Hp; try discriminate.
      +
        injection H as <-.
        eapply (queued_moved s _ lg i t _ _ QIs Ht);
          [reflexivity..|apply plain_returned|rewrite Hp; discriminate|exact Logic.I|reflexivity| |].
        * intros st Hst Hl. apply (covers_app CW PutOk CW_app PutOk_app); [exact (D st Hst)|exact Hl].
        * apply (tracks_app PutOk true PutOk_app). exact E.
      +
        destruct ((if negb (f =? 0)%Z then f else b) =? 0)%Z eqn:Ec.
        * cbn [returned]. apply Z.eqb_eq in Ec. rewrite Ec.
          assert (Pd : forall tl, PutOk i d (lg ++ ev_ret i 0 1 d 0 [] (clk s) :: tl)).
          { intros tl. exists (ev_ret i 0 1 d 0 [] (clk s)). split; [apply in_or_app; right; left; reflexivity|].
            split; [apply put_ok_ret|apply caller_ret]. }
          destruct rest as [|d' rest']; injection H as <-.
          -- (* last object copied: record in the cache, return the token, return OK *)
             cbn [finish_base]. set (t' := mkthr (Done 0) (todo t) (cancelled t) None).
             match goal with |- context [pc_of ?sx i] => set (s1 := sx) end.
             assert (P1 : pc_of s1 i = tpc t') by (apply pc_of_at; cbn [s1 thr set_thr]; eapply nth_error_upd_eq; exact Ht).
             rewrite P1. cbn [t' tpc arrive app].
             set (lg' := lg ++ [ev_ret i 0 1 d 0 [] (clk s); ev_done i 0 (clk s)]).
             assert (Mine : forall k, PutOk i k lg' -> CWT k (clk s) lg').
             { intros k (e0 & He0 & Pe & Ce). exists e0, (ev_done i 0 (clk s)). split; [exact He0|].
               split; [apply in_or_app; right; right; left; reflexivity|]. split; [exact Pe|].
               split; [rewrite Ce; apply is_succ_done_true|apply SxFactsMA.sx_N_of_N]. }
             split; [|split].
             ++ apply (allQ_moved s s1 lg i t t' [ev_ret i 0 1 d 0 [] (clk s)] (clk s) T Ht);
                  [reflexivity|apply plain_ret|rewrite Hp; discriminate|exact Logic.I|reflexivity| |exact Logic.I].
                intros st Hst Hl. cbn [t' tpc arrive app]. fold lg'. intros _ x Hx.
                assert (Hts : (tstart_of lg' st <= clk s + dur)%N).
                { unfold lg'. rewrite tstart_app by exact Hl. specialize (K i st Hst). lia. }
                destruct (D st Hst x Hx) as [->|[[]|[F|F]]].
                ** apply (CWT_CW d (clk s)); [apply Mine, Pd|exact Hts].
                ** apply (CWT_CW x (clk s)); [apply Mine, PutOk_app, F|exact Hts].
                ** apply CW_app; assumption.
             ++ eapply clockQ_app; [exact K|cbn; lia|intros j x [<-|[<-|[]]]; reflexivity].
             ++ destruct Ca as (recs & Ti & Hr). unfold cacheQ, s1. cbn [qcache set_thr].
                exists (map (fun d0 => (d0, clk s)) (match bset t with Some ds => ds | None => [] end) ++ recs).
                split; [apply ec_add_times_in; exact Ti|]. fold lg'.
                intros k t0 Hk. apply in_app_or in Hk. destruct Hk as [Hk|Hk]; [|apply CWT_app, Hr, Hk].
                apply in_map_iff in Hk. destruct Hk as (k0 & Ek & Hk0). inversion Ek; subst. apply Mine.
                destruct (bset t) as [ds|] eqn:Eb; [|destruct Hk0].
                destruct (E ds eq_refl k Hk0) as [->|[[]|F]]; [apply Pd|apply PutOk_app, F].
          -- eapply (queued_moved s _ lg i t _ _ QIs Ht);
               [reflexivity..|apply plain_ret|rewrite Hp; discriminate|exact Logic.I|reflexivity| |].
             ++ intros st Hst Hl x Hx. cbn [tpc arrive app].
                destruct (D st Hst x Hx) as [->|[[->|F]|[F|F]]]; auto using PutOk_app, CW_app.
             ++ intros ds Hb x Hx. cbn [tpc arrive app].
                destruct (E ds Hb x Hx) as [->|[[->|F]|F]]; auto using PutOk_app.
        * injection H as <-. cbn [finish_base]. rewrite Ec.
          eapply (queued_moved s _ lg i t (mkthr (Done _) (todo t) (cancelled t) None) _ QIs Ht);
            [reflexivity..|apply plain_returned|rewrite Hp; discriminate|exact Logic.I|reflexivity| |exact Logic.I].
          intros st Hst Hl Hc. rewrite Hc in Ec. discriminate Ec.
    -
      destruct (nth_error (thr s) i) as [t|] eqn:Ht; [|discriminate].
      destruct (cancelled t); [discriminate|]. injection H as <-. rewrite app_nil_r.
      split; [|split; [exact K|exact Ca]].
      unfold allQ, allK. eapply all_upd; [reflexivity|exact (T i t Ht)|]. intros j tj _ Hj. exact (T j tj Hj).
    -
      injection H as <-. rewrite app_nil_r. split; [exact T|]. split; [|exact Ca].
      intros j st Hst. specialize (K j st Hst). cbn [clk]. lia.
    -
      destruct (nth_error (thr s) i) as [t|] eqn:Ht; [|discriminate].
      pose proof (T i t Ht) as Ti. destruct Ti as (Lt & Td & _ & _ & _). unfold qpc in Lt.
      destruct (tpc t) eqn:Hp; try contradiction; destruct alt; try discriminate.
      + (* Idle: consult the existence cache *)
        destruct (ec_remove_existing dur (clk s) (todo t) (qcache s)) as [mm c1] eqn:Er.
        destruct (ec_remove_existing_spec _ _ _ _ _ _ Er) as (Et & Sub & Hit).
        injection H as <-.
        set (t' := mkthr (match mm with [] => Done 0 | _ :: _ => WaitTok end) (todo t) (cancelled t) (bset t)).
        apply (queued_moved s _ lg i t t' [] QIs Ht);
          [reflexivity|reflexivity|exact Et|apply plain_nil|rewrite Hp; discriminate
          |cbn [t']; unfold qpc; cbn [tpc]; destruct mm; exact Logic.I|reflexivity| |].
        * cbn [t' tpc]. destruct mm as [|d0 mm']; [|exact (fun _ _ _ => Logic.I)].
          intros st Hst Hl _ d' Hd. apply CW_app; [|exact Hl].
          destruct (Hit d' Hd (fun X => X)) as (t0 & L0 & F0).
          eapply cached_CW; [exact Ca|exact L0|exact F0|exact (K i st Hst)].
        * cbn [t' tpc]. destruct mm; exact Logic.I.
      + (* WaitTok, cancelled *)
        destruct (cancelled t); [|discriminate]. injection H as <-.
        eapply (queued_moved s _ lg i t _ [] QIs Ht);
          [reflexivity..|apply plain_nil|rewrite Hp; discriminate|exact Logic.I|reflexivity| |exact Logic.I].
        intros st _ _ X1. discriminate X1.
      + (* WaitTok takes the token *)
        destruct (tok s); [|discriminate].
        destruct (ec_remove_existing dur (clk s) (todo t) (qcache s)) as [mm c1] eqn:Er.
        destruct (ec_remove_existing_spec _ _ _ _ _ _ Er) as (Et & Sub & Hit).
        injection H as <-. unfold begin_base.
        assert (Cached : forall st d', started_at i lg st -> In d' (todo t) -> ~ In d' mm -> CW d' st lg).
        { intros st d' Hst Hd Hn. destruct (Hit d' Hd Hn) as (t0 & L0 & F0).
          eapply cached_CW; [exact Ca|exact L0|exact F0|exact (K i st Hst)]. }
        destruct mm as [|d rest].
        * cbn [finish_base]. rewrite ?Z.eqb_refl.
          apply (queued_moved s _ lg i t (mkthr (Done 0) (todo t) (cancelled t) None) [] QIs Ht);
            [cbn [thr set_thr note_max]; apply upd_upd|reflexivity|cbn [qcache set_thr note_max bset ec_add]; exact Et
            |apply plain_nil|rewrite Hp; discriminate|exact Logic.I|reflexivity| |exact Logic.I].
          intros st Hst Hl _ d' Hd. apply CW_app; [|exact Hl]. apply Cached; [exact Hst|exact Hd|intros []].
        * apply (queued_moved s _ lg i t (mkthr (Get d rest 0) (todo t) (cancelled t) (Some (d :: rest))) [] QIs Ht);
            [cbn [thr set_thr note_max]; rewrite upd_upd; reflexivity|reflexivity|cbn [qcache set_thr note_max]; exact Et
            |apply plain_nil|rewrite Hp; discriminate|exact Logic.I|reflexivity| |].
          -- intros st Hst Hl d' Hd.
             destruct (in_dec Nat.eq_dec d' (d :: rest)) as [[<-|Hin]|Hn]; [left; reflexivity|right; left; exact Hin|].
             right. right. right. apply CW_app; [|exact Hl]. apply Cached; assumption.
          -- intros ds Hb d' Hd. injection Hb as <-. destruct Hd as [<-|Hd]; auto.
  Qed.

  Lemma QI_init source sink : QI (init_state sets source sink) [].
  Proof.
    split; [|split].
    - intros j tj Hj. apply init_thread_at in Hj. subst tj. apply TK_init. exact Logic.I.
    - intros j st Hst. discriminate Hst.
    - exists []. split; [intros k t0 L; discriminate L|intros k t0 []].
  Qed.

  Theorem queued_clause25 source sink tr s : run (MQueued size dur) (init_state sets source sink) tr = Some s ->
    clause25_ok dur sets (tlog (MQueued size dur) (init_state sets source sink) tr).
  Proof.
    intros H. pose proof (tlog_inv (MQueued size dur) QI _ (QI_init source sink) queued_log_step tr s H) as (T & _ & _).
    intros i p st Hi Hs Hst. apply forallb_forall. intros d Hd.
    apply (allK_clause sets qpc CW PutOk true s _ i p st d T); try assumption.
    rewrite (run_length _ _ _ _ H). apply init_length.
  Qed.
End Queued.
