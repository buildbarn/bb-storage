(** Run/R01SMonBase.v — groundwork for "the C01S monitor is silent on the model's run"
    (Run/R01SMon.v): sx round trips, enabledness of the sector-writer steps the harness
    model [exec] performs, reachability of the states it visits, stability of the start
    offsets, and the facts about device writes and device contents that the monitor's
    clauses 1, 2, 3, 5 ask for, derived from the invariants of
    Store/SectorWriterProofs.v, SectorWriterInv.v, SectorWriterAccum.v and
    SectorWriterDevice.v. *)
From Coq Require Import List Arith ZArith Bool Lia.
From BBS Require Common.SxFactsMA.
From BBS Require Import Common.Sx Store.SectorWriter Store.SectorWriterProofs Store.SectorWriterSpec
  Store.SectorWriterCommute Store.SectorWriterArith Store.SectorWriterInv Store.SectorWriterAccum
  Store.SectorWriterDevice Run.R01S.
Import ListNotations.
Open Scope nat_scope.

Lemma dec_enc_bytes b : dec_bytes (enc_bytes b) = b.
Proof. apply SxFactsMA.sx_Zs_of_Zs. Qed.

Lemma dec_enc_write w : dec_write (enc_write w) = w.
Proof.
  destruct w as [o b]. unfold dec_write, enc_write, sx_nth. cbn [sx_list nth fst snd].
  rewrite dec_enc_bytes. fold (sx_nat (of_nat o)). rewrite SxFactsMA.sx_nat_of_nat. reflexivity.
Qed.

Lemma dec_enc_log l : dec_log (enc_log l) = l.
Proof.
  unfold dec_log, enc_log. cbn [sx_list]. rewrite map_map.
  rewrite <- (map_id l) at 2. apply map_ext. apply dec_enc_write.
Qed.

Lemma upd_same {T} (l : list T) i x : nth_error l i = Some x -> upd l i x = l.
Proof.
  revert i; induction l as [|h l IH]; intros [|i] H; cbn in *; try discriminate; try reflexivity.
  - inversion H; reflexivity.
  - rewrite IH; auto.
Qed.

Lemma upd_upd {T} (l : list T) i x y : upd (upd l i x) i y = upd l i y.
Proof. revert i; induction l as [|h l IH]; intros [|i]; cbn; try reflexivity. rewrite IH; reflexivity. Qed.

Lemma nth_map_nth_error {A B} (f : A -> B) l j x d : nth_error l j = Some x -> nth j (map f l) d = f x.
Proof.
  revert j; induction l as [|h l IH]; intros [|j] H; cbn in *; try discriminate.
  - inversion H; reflexivity.
  - apply IH; exact H.
Qed.

Lemma nth_error_lt {T} (l : list T) j x : nth_error l j = Some x -> j < length l.
Proof. intros H. apply nth_error_Some. congruence. Qed.

Lemma bytes_eqb_refl a : bytes_eqb a a = true.
Proof. induction a as [|x a IH]; cbn [bytes_eqb]; [reflexivity|]. rewrite Z.eqb_refl, IH. reflexivity. Qed.

Lemma nth_firstn_lt {T} (l : list T) k i d : i < k -> nth i (firstn k l) d = nth i l d.
Proof.
  revert k i; induction l as [|x l IH]; intros [|k] [|i] H; cbn; try lia; auto. apply IH. lia.
Qed.

Lemma nth_skipn_add {T} (l : list T) k i d : nth i (skipn k l) d = nth (k + i) l d.
Proof.
  revert l; induction k as [|k IH]; intros l; cbn; [reflexivity|].
  destruct l; [destruct i; reflexivity|apply IH].
Qed.

Lemma slice_eq (dev : list byte) off n (data : list byte) :
  off + n <= length dev -> length data = n ->
  (forall i, i < n -> nth (off + i) dev 0%Z = nth i data 0%Z) ->
  slice dev off n = data.
Proof.
  intros Hl Hd Hn. unfold slice. apply (nth_ext _ _ 0%Z 0%Z); unfold byte in *.
  - rewrite firstn_length, skipn_length. rewrite Nat.min_l by lia. lia.
  - intros i Hi. rewrite firstn_length, skipn_length in Hi. rewrite Nat.min_l in Hi by lia.
    rewrite nth_firstn_lt by lia. rewrite nth_skipn_add. apply Hn. lia.
Qed.

Section Steps.
Variable c : cfg.

Lemma step_skip_some s e s' l : step c s e = Some (s', l) -> step_skip c s e = (s', l).
Proof. intros H. unfold step_skip. rewrite H. reflexivity. Qed.

Lemma step_alloc_ok s n : has_space c (st_cur s) n = true ->
  exists s' t, step c s (EAlloc n) = Some (s', []) /\ st_threads s' = st_threads s ++ [t] /\
    t_size t = n /\ t_data t = [] /\ t_status t = Active /\ st_dev s' = st_dev s.
Proof.
  intros H. cbn [step]. rewrite H.
  destruct (alloc c (st_cur s) (st_images s) n) as [[[b' im'] w] st].
  do 2 eexists. split; [reflexivity|]. cbn. repeat split.
Qed.

Lemma steps_skip_1 s e s' l : step_skip c s e = (s', l) -> steps_skip c s [e] = (s', l).
Proof. intros H. unfold steps_skip. cbn [fold_left fst snd]. rewrite H. reflexivity. Qed.

Lemma steps_skip_2 s e1 e2 s1 l1 s2 l2 :
  step_skip c s e1 = (s1, l1) -> step_skip c s1 e2 = (s2, l2) -> steps_skip c s [e1; e2] = (s2, l1 ++ l2).
Proof. intros H1 H2. unfold steps_skip. cbn [fold_left fst snd]. rewrite H1. cbn [fst snd]. rewrite H2. reflexivity. Qed.

(** start offsets and sizes of existing writers never change; writers are only appended *)
Definition ext (s s2 : state) : Prop :=
  forall j t, nth_error (st_threads s) j = Some t ->
    exists t2, nth_error (st_threads s2) j = Some t2 /\ t_start t2 = t_start t /\ t_size t2 = t_size t.

Lemma ext_refl s : ext s s.
Proof. intros j t H. exists t. auto. Qed.

Lemma ext_trans s1 s2 s3 : ext s1 s2 -> ext s2 s3 -> ext s1 s3.
Proof.
  intros H12 H23 j t H. destruct (H12 _ _ H) as (t2 & H2 & E1 & E2).
  destruct (H23 _ _ H2) as (t3 & H3 & E3 & E4). exists t3. repeat split; congruence.
Qed.

Lemma step_ext s e s' l : step c s e = Some (s', l) -> ext s s'.
Proof.
  intros Hs. destruct (is_alloc e) eqn:Ha.
  - destruct e as [n| | |]; try discriminate.
    destruct (step_alloc_shape _ _ _ _ _ Hs) as (t0 & _ & _ & E & _). intros j t Hj. exists t.
    rewrite E, nth_error_app1 by (eapply nth_error_lt; eauto). auto.
  - destruct (step_writer_shape _ _ _ _ _ Hs Ha) as (k & t & t' & im' & Hk & _ & -> & (E1 & E2 & _)).
    intros j u Hj. cbn [set_thread st_threads]. destruct (Nat.eq_dec k j) as [->|Hne].
    + exists t'. rewrite nth_error_upd_eq by (eapply nth_error_lt; eauto).
      rewrite Hk in Hj. inversion Hj; subst. auto.
    + exists u. rewrite nth_error_upd_ne by exact Hne. auto.
Qed.

Lemma step_skip_ext s e s' l : step_skip c s e = (s', l) -> ext s s'.
Proof.
  unfold step_skip. destruct (step c s e) as [[s1 l1]|] eqn:Hs; intros H; inversion H; subst.
  - eapply step_ext; eauto.
  - apply ext_refl.
Qed.

Lemma steps_skip_ext es : forall s l0 s' l,
  fold_left (fun acc e => let '(s', l) := step_skip c (fst acc) e in (s', snd acc ++ l)) es (s, l0) = (s', l) ->
  ext s s'.
Proof.
  induction es as [|e es IH]; intros s l0 s' l H; cbn [fold_left] in H.
  - inversion H; subst. apply ext_refl.
  - cbn [fst snd] in H. destruct (step_skip c s e) as [s1 l1] eqn:H1.
    eapply ext_trans; [eapply step_skip_ext; eauto|eapply IH; eauto].
Qed.

Lemma exec_ext r ev r' res l : exec c r ev = (r', res, l) -> ext (r_st r) (r_st r').
Proof.
  unfold exec. cbv zeta. intros H.
  repeat match type of H with context [match ?x with _ => _ end] => destruct x eqn:? end;
    inversion H; subst; cbn [r_st];
    first [apply ext_refl | solve [eapply step_skip_ext; eauto]
          | solve [unfold steps_skip in *; eapply steps_skip_ext; eauto]].
Qed.

Lemma exec_all_ext evs : forall r r2 out, exec_all c r evs = (r2, out) -> ext (r_st r) (r_st r2).
Proof.
  induction evs as [|ev evs IH]; intros r r2 out H; cbn [exec_all] in H.
  - inversion H; subst. apply ext_refl.
  - destruct (exec c r ev) as [[r1 res] l] eqn:H1. destruct (exec_all c r1 evs) as [r2' out'] eqn:H2.
    inversion H; subst. eapply ext_trans; [eapply exec_ext; eauto|eapply IH; eauto].
Qed.
End Steps.

Section Reach.
Variable k : cfg01s.
Let c := k_cfg k.
Let SS := c_sector c.
Hypothesis HS : 1 <= c_sector c.
Hypothesis Hbase : c_base c = c_spb c.

Definition Reach (s : state) : Prop :=
  exists tr, run (k_cfg k) (init_state (init_dev k) (init_cursor k)) tr = Some s.

Lemma reach_init : Reach (init_state (init_dev k) (init_cursor k)).
Proof. exists []. reflexivity. Qed.

Lemma reach_step s e s' l : Reach s -> step c s e = Some (s', l) -> Reach s'.
Proof.
  intros [tr H] Hs. exists (tr ++ [e]). rewrite run_app, H. cbn [run]. fold c. rewrite Hs. reflexivity.
Qed.

Lemma init_cursor_shared : b_shared (init_cursor k) = None.
Proof. unfold init_cursor. destruct (k_restored k); reflexivity. Qed.

Lemma init_cursor_wf : cursor_wf c (init_cursor k).
Proof. unfold cursor_wf. rewrite init_cursor_shared. exact I. Qed.

Lemma init_dev_len : (c_base c + c_spb c) * c_sector c <= length (init_dev k).
Proof. unfold init_dev. rewrite repeat_length. fold c. rewrite Hbase. lia. Qed.

Lemma init_cursor_restored r : k_restored k = Some r -> r <= cpos c (init_cursor k).
Proof.
  intros H. unfold init_cursor. rewrite H. fold c. pose proof (new_block_at_pos c r HS). lia.
Qed.

(** every writer's range lies in the block, at or above the initial cursor *)
Lemma reach_bounds s j t : Reach s -> nth_error (st_threads s) j = Some t ->
  cpos c (init_cursor k) <= t_start t /\ t_start t + t_size t <= c_spb c * c_sector c.
Proof.
  intros [tr H] Hj. pose proof (run_ainv c _ _ tr s HS init_cursor_wf H) as Ha.
  pose proof (range_bound c HS _ _ _ _ Ha Hj) as Hhi. destruct Ha as (_ & Hch & _).
  pose proof (chained_bounds _ _ _ _ Hch Hj). unfold t_end in Hhi. lia.
Qed.

Lemma run_dev_len tr s s' : run c s tr = Some s' -> length (st_dev s') = length (st_dev s).
Proof.
  apply (run_invariant c (fun s1 => length (st_dev s1) = length (st_dev s))); [|reflexivity].
  intros s1 e s2 l E Hs. rewrite <- E. eapply step_dev_length; eauto.
Qed.

Lemma reach_dev_len s : Reach s -> length (st_dev s) = length (init_dev k).
Proof. intros [tr H]. apply (run_dev_len _ _ _ H). Qed.

(** clause 1: the device holds the data of every flushed writer *)
Lemma reach_flushed_slice s j t : Reach s -> nth_error (st_threads s) j = Some t -> t_status t = Flushed ->
  slice (st_dev s) (c_base c * c_sector c + t_start t) (t_size t) = t_data t.
Proof.
  intros HR Hj Hf. destruct (reach_bounds _ _ _ HR Hj) as [_ Hhi]. destruct HR as [tr H].
  destruct (run_inv3 c _ _ tr s HS init_cursor_shared init_dev_len H) as (_ & Hfl & Hd & Hlen).
  apply slice_eq.
  - unfold devlen in Hlen. lia.
  - exact (Forall_nth_error _ _ _ _ Hfl Hj Hf).
  - intros i Hi. rewrite <- Nat.add_assoc.
    rewrite (Hd j t (t_start t + i) Hj ltac:(unfold t_end; lia) (or_introl Hf) I). f_equal. lia.
Qed.

(** clauses 2, 3, 5: the device writes of one step of writer j *)
Definition span_ok (st sz : nat) (l : list dwrite) : Prop :=
  forallb (in_range (c_base c * SS + st / SS * SS) (c_base c * SS + (st + sz + SS - 1) / SS * SS)) l = true /\
  forallb (in_range (c_base c * SS) ((c_base c + c_spb c) * SS)) l = true /\
  (forall r, k_restored k = Some r -> forallb (fun w => c_base c * SS + r <=? fst w) l = true).

Lemma span_ok_app st sz l1 l2 : span_ok st sz l1 -> span_ok st sz l2 -> span_ok st sz (l1 ++ l2).
Proof.
  intros (A1 & A2 & A3) (B1 & B2 & B3). unfold span_ok. split; [|split].
  - rewrite forallb_app. apply andb_true_intro. split; assumption.
  - rewrite forallb_app. apply andb_true_intro. split; assumption.
  - intros r Hr. rewrite forallb_app. apply andb_true_intro. split; [exact (A3 _ Hr)|exact (B3 _ Hr)].
Qed.

Lemma reach_step_span s e s' l j t :
  Reach s -> step c s e = Some (s', l) -> ev_thread e = Some j -> nth_error (st_threads s) j = Some t ->
  span_ok (t_start t) (t_size t) l.
Proof.
  intros HR Hs He Hj. destruct (reach_bounds _ _ _ HR Hj) as [Hlo Hhi]. destruct HR as [tr H].
  pose proof (proj2 (sinv_writer_step c HS _ s e s' l j t (run_sinv c _ _ tr s HS init_cursor_shared H) Hs He Hj)) as HF.
  rewrite Forall_forall in HF. unfold in_span, span_lo, span_hi, t_fs, t_end in HF. fold SS in HF, Hhi |- *.
  pose proof (ceil_le SS HS _ _ Hhi) as Hq1.
  unfold span_ok. repeat split.
  - apply forallb_forall. intros w Hw. destruct (HF _ Hw) as [L1 L2]. unfold in_range.
    apply andb_true_intro; split; apply Nat.leb_le; lia.
  - apply forallb_forall. intros w Hw. destruct (HF _ Hw) as [L1 L2]. unfold in_range.
    apply andb_true_intro; split; apply Nat.leb_le; lia.
  - intros r Hr. pose proof (init_cursor_restored _ Hr) as Hr1.
    assert (Hm : cpos c (init_cursor k) = b_wos (new_block_at c r) * SS).
    { unfold init_cursor. rewrite Hr. unfold cpos. cbn. fold c. fold SS. lia. }
    pose proof (floor_ge SS HS (b_wos (new_block_at c r)) (t_start t) ltac:(lia)).
    apply forallb_forall. intros w Hw. destruct (HF _ Hw) as [L1 L2]. apply Nat.leb_le. lia.
Qed.
End Reach.
