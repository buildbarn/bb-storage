(** C03, monitor versus model — part 6: whole observations (all incarnations), in terms of the
    judge's own functions [replay03] and [mon03].

    [mon03_silent_on_accepted_partial]: for every input and every observation that the model
    accepts ([replay03 inp obs = []], not a panic / hang marker) and whose upload results are
    consistent with the finalizer entries ([u_obs], see Run/R03MonAck.v), the monitor can only
    report clauses 1, 4 or 5: clauses 2, 3, 7, 8 are silent.
    [mon03_obligations_sound]: for every accepted observation, incarnation by incarnation: whenever
    the monitor carries durability obligations into the next incarnation (the premise of clauses 1
    and 4), the state that the next incarnation is restored from is the state of the model's newest
    completed write, whose cohort is every acknowledgement the model made and which covers each
    of them.
    Not covered: that the read-back (entry 32) of an owed key succeeds when its acknowledgement is
    covered, and clause 5 (right bytes) — both need the key-location map, the old/current/new map
    and the data device, which the C03 model does not contain (C01/C02/C05/C06 do). *)
From Coq Require Import List NArith ZArith Bool Arith Lia.
From BBS Require Import Common.Sx Persist.PBL Persist.PBLProofs Persist.Syncer Persist.SyncerProofs
  Persist.Shutdown Persist.ShutdownProofs Persist.ShutdownOrder Run.R03 Run.R03MonGhost Run.R03MonFields
  Run.R03MonReplay Run.R03Mon Run.R03MonAck.
Import ListNotations.
Local Open Scope nat_scope.

Lemma dedupz_in z l : In z (dedupz l) -> In z l.
Proof.
  induction l as [|x r IH]; cbn; [auto|]. destruct (zmem x r); [auto|]. intros [->|H]; auto.
Qed.

Lemma entry_range cfgsx objs ops m e z : In z (m_viol (mon_entry cfgsx objs ops m e)) ->
  In z (m_viol m) \/ z = 1%Z \/ z = 2%Z \/ z = 3%Z \/ z = 4%Z \/ z = 5%Z.
Proof.
  intros Hin.
  destruct (mon_entry_viol _ _ _ _ _ _ Hin) as [H|[->|[[_ [_ [_ [[-> _]|[-> _]]]]]|[_ [[->| ->] _]]]]]; auto 10.
Qed.

Lemma entries_range cfgsx objs ops es : forall m z, In z (m_viol (fold_left (mon_entry cfgsx objs ops) es m)) ->
  In z (m_viol m) \/ z = 1%Z \/ z = 2%Z \/ z = 3%Z \/ z = 4%Z \/ z = 5%Z.
Proof.
  induction es as [|e es IH]; intros m z H; cbn in H; [auto|].
  destruct (IH _ _ H) as [H1|H1]; [|auto]. apply entry_range in H1. exact H1.
Qed.

Lemma incs_range cfgsx objs : forall hists incs m z, In z (m_viol (mon_incs cfgsx objs incs hists m)) ->
  In z (m_viol m) \/ z = 1%Z \/ z = 2%Z \/ z = 3%Z \/ z = 4%Z \/ z = 5%Z.
Proof.
  induction hists as [|h hs IH]; intros [|inc incs] m z H; cbn in H; auto.
  destruct (IH _ _ _ H) as [H1|H1]; [|auto]. cbn [mon_exit m_viol] in H1. eapply entries_range; eauto.
Qed.

Fixpoint u_incs (cfgsx objs : sx) (incs hists : list sx) (m : mst) : bool :=
  match incs, hists with
  | inc :: incs', h :: hists' =>
      let ops := sx_list (sx_nth inc 1) in
      u_all cfgsx objs ops m (mkU [] false) (sx_list h) &&
      u_incs cfgsx objs incs' hists' (mon_exit (fold_left (mon_entry cfgsx objs ops) (sx_list h) m))
  | _, _ => true
  end.

Definition u_obs (inp obs : sx) : bool :=
  u_incs (sx_nth inp 0) (sx_nth inp 1) (sx_list (sx_nth inp 2)) (sx_list obs) m_init.

Lemma replay_hists_cons c cfg bs inc st0 now h hs : replay_hists c cfg bs inc st0 now (h :: hs) = [] ->
  exists e0 es x0 x1, sx_list h = e0 :: es /\ replay_restore c cfg bs st0 now e0 = Some x0 /\
    replay_entries cfg bs 1 x0 es = (x1, []) /\
    replay_hists c cfg bs (S inc) (x_state x1) (s_now (x_sys x1)) hs = [].
Proof.
  cbn [replay_hists]. destruct (sx_list h) as [|e0 es]; [discriminate|].
  destruct (replay_restore c cfg bs st0 now e0) as [x0|] eqn:R0; [|discriminate].
  destruct (replay_entries cfg bs 1 x0 es) as [x1 [|b bad]] eqn:R; [|discriminate].
  intros H. exists e0, es, x0, x1. repeat split; auto.
Qed.

Lemma incs_no23 c cfg bs cfgsx objs : forall hists incs m inc st0 now,
  m_fresh m -> replay_hists c cfg bs inc st0 now hists = [] -> u_incs cfgsx objs incs hists m = true ->
  forall z, In z (m_viol (mon_incs cfgsx objs incs hists m)) -> In z (m_viol m) \/ no23 z.
Proof.
  induction hists as [|h hs IH]; intros [|ic incs] m inc st0 now Hf Hr Hu z Hin; cbn [mon_incs] in Hin; auto.
  cbn [u_incs] in Hu. apply andb_prop in Hu. destruct Hu as [Hu1 Hu2].
  destruct (replay_hists_cons _ _ _ _ _ _ _ _ Hr) as [e0 [es [x0 [x1 [Eh [R0 [R1 R2]]]]]]].
  rewrite Eh in *.
  destruct (IH _ _ _ _ _ (mon_exit_fresh _) R2 Hu2 z Hin) as [H|H]; [|right; exact H].
  cbn [mon_exit m_viol] in H.
  eapply mon03_clauses23_silent; eauto.
Qed.

Theorem mon03_silent_on_accepted_partial inp obs :
  is_marker obs = false -> replay03 inp obs = [] -> u_obs inp obs = true ->
  forall z, In z (mon03 inp obs) -> z = 1%Z \/ z = 4%Z \/ z = 5%Z.
Proof.
  intros Hm Hr Hu z Hin. unfold mon03 in Hin. rewrite Hm in Hin. apply dedupz_in in Hin.
  unfold replay03 in Hr. unfold u_obs in Hu.
  destruct (incs_no23 _ _ _ _ _ _ _ _ _ _ _ m_init_fresh Hr Hu z Hin) as [H|[N2 N3]]; [destruct H|].
  destruct (incs_range _ _ _ _ _ _ Hin) as [H|[H|[H|[H|[H|H]]]]]; auto; try destruct H; congruence.
Qed.

Fixpoint obl_sound (cfgsx objs c : sx) (cfg : config) (bs : Z) (incs hists : list sx) (m : mst)
    (st0 : pstate) (now : N) : Prop :=
  match incs, hists with
  | inc :: incs', h :: hists' =>
      match sx_list h with
      | e0 :: es =>
          exists x0 x1, replay_restore c cfg bs st0 now e0 = Some x0 /\ replay_entries cfg bs 1 x0 es = (x1, []) /\
            let m1 := fold_left (mon_entry cfgsx objs (sx_list (sx_nth inc 1))) (e0 :: es) m in
            (exists alloc oldest init gx,
               greachable cfg alloc oldest init now (x_sys x1) gx /\
               (m_final m1 = true -> closedForWriting (s_pbl (x_sys x1)) = true) /\
               (m_exited m1 = true -> s_p (x_sys x1) = PExit) /\
               (m_prev (mon_exit m1) <> 0%Z ->
                  exists w rest, gs_writes gx = w :: rest /\ x_state x1 = gw_state w /\
                                 gw_cohort w = g_acks (gs_g gx) /\
                                 forall a, In a (g_acks (gs_g gx)) -> covers w a)) /\
            (* the next incarnation: restored from [x_state x1], with the obligations of [mon_exit m1] *)
            obl_sound cfgsx objs c cfg bs incs' hists' (mon_exit m1) (x_state x1) (s_now (x_sys x1))
      | [] => False
      end
  | _, _ => True
  end.

Lemma incs_obl_sound cfgsx objs c cfg bs : forall hists incs m inc st0 now,
  m_fresh m -> replay_hists c cfg bs inc st0 now hists = [] ->
  obl_sound cfgsx objs c cfg bs incs hists m st0 now.
Proof.
  induction hists as [|h hs IH]; intros [|ic incs] m inc st0 now Hf Hr; cbn [obl_sound]; auto.
  destruct (replay_hists_cons _ _ _ _ _ _ _ _ Hr) as [e0 [es [x0 [x1 [Eh [R0 [R1 R2]]]]]]].
  rewrite Eh. exists x0, x1. split; [exact R0|]. split; [exact R1|]. cbv zeta. split.
  - destruct (mon03_incarnation_sound c cfg bs st0 now e0 es x0 x1 cfgsx objs (sx_list (sx_nth ic 1)) m R0 R1 Hf)
      as [alloc [oldest [init [gx [A [_ [B [C D]]]]]]]].
    exists alloc, oldest, init, gx. auto.
  - eapply IH; [apply mon_exit_fresh|exact R2].
Qed.

Theorem mon03_obligations_sound inp obs : replay03 inp obs = [] ->
  let c := sx_nth inp 0 in
  obl_sound c (sx_nth inp 1) c (mkConfig (sx_N (sx_nth c 9)) (sx_N (sx_nth c 10))) (sx_Z (sx_nth c 0))
            (sx_list (sx_nth inp 2)) (sx_list obs) m_init init_pstate 0%N.
Proof. intros Hr c. eapply incs_obl_sound; [apply m_init_fresh|exact Hr]. Qed.
