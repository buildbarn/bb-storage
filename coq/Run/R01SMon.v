(** Run/R01SMon.v — the C01S monitor [mon01S] is silent on the model's own run [run01S],
    for every input with sector size >= 1 ([dom01S]): induction over the event list with the
    joint invariant of Run/R01SMonInv.v.  One lemma per monitor clause, then the theorem.
    [dom01S] is necessary: with sector size 0 (where the Go code divides by zero) clause 5
    fires on the model ([dom01S_needed]). *)
From Coq Require Import List Arith ZArith Bool Lia.
From BBS Require Import Common.Sx Store.SectorWriter Store.SectorWriterProofs Store.SectorWriterSpec
  Store.SectorWriterCommute Store.SectorWriterInv Store.SectorWriterAccum
  Store.SectorWriterDevice Run.R01S Run.R01SMonBase Run.R01SMonInv.
Import ListNotations.
Open Scope nat_scope.

Section Mon.
Variable k : cfg01s.
Let c := k_cfg k.
Let SS := c_sector c.
Hypothesis HS : 1 <= c_sector c.
Hypothesis Hbase : c_base c = c_spb c.

Ltac noop HI :=
  let H := fresh "H" in
  intros H; injection H as <- <- <-;
  split; [exact HI|intros _; split; [apply b2_nil|split; [reflexivity|apply b5_nil]]].

Lemma exec_mon r ev r' res l dev ws starts :
  Inv k r dev ws -> exec c r ev = (r', res, l) ->
  Inv k r' (apply_writes dev l) (ws_next ev res ws) /\
  (compat starts (r_st r') -> b2 k l = [] /\ b3 k starts ev ws l = [] /\ b5 k l = []).
Proof.
  intros HI. pose proof HI as (HR & Hdev & H3). unfold c in *.
  unfold exec, ws_next, b3. cbv beta zeta.
  set (arg := sx_nat (sx_nth ev 1)).
  destruct (sx_nat (sx_nth ev 0)) as [|[|[|[|[|n]]]]]; cbv beta iota.
  (* 1, 2, 3 are events of writer [arg]: nothing happens unless it exists and is live *)
  2-4: destruct (nth_error (r_v r) arg) as [v|] eqn:Hv; cbv beta iota;
    [|rewrite (R3_none _ _ _ _ H3 Hv); noop HI].
  2-4: destruct (R3_get _ _ _ _ _ H3 Hv) as (t & m & Ht & Hm & (Hsz & Hvs & Hlf & HL & HO)); rewrite Hm.
  2-4: destruct (v_live v) eqn:Hlive; cbv beta iota;
    [|replace (m_fin m) with true by (destruct (m_fin m); [reflexivity|discriminate]); noop HI].
  2-4: replace (m_fin m) with false by (destruct (m_fin m); [discriminate|reflexivity]).
  2-4: destruct (HL eq_refl) as (Hact & Hok & Hdata & Hfed & Hle & Hpend).
  - (* 0: HasSpace, Put *)
    destruct (has_space (k_cfg k) (st_cur (r_st r)) arg) eqn:Hhs.
    + destruct (step_alloc_ok (k_cfg k) _ _ Hhs) as (s' & t & Hs & E1 & E2 & E3 & E4 & E5).
      rewrite (step_skip_some _ _ _ _ _ Hs). intros H; injection H as <- <- <-.
      change (sx_bool (sx_nth (L [of_bool true]) 0)) with true. cbv beta iota.
      split; [|intros _; split; [apply b2_nil|split; [reflexivity|apply b5_nil]]].
      unfold Inv. cbn [r_st r_v apply_writes fold_left].
      split; [eapply reach_step; eauto|]. split; [congruence|].
      rewrite E1. apply R3_app; [exact H3|].
      apply rel_live; cbn [m_size v_size v_live m_fin m_ok m_data v_fed v_pending pend length]; auto.
      * unfold pend. cbn [v_pending]. rewrite E3. reflexivity.
      * lia.
      * intros Hn; exfalso; apply Hn; reflexivity.
    + noop HI.
  - (* 1: a chunk *)
    destruct (v_fed v =? v_size v) eqn:Hfs.
    + destruct (dec_bytes (sx_nth ev 2)) as [|b ch] eqn:Hch.
      * (* nothing more expected, empty chunk *)
        intros H; injection H as <- <- <-.
        split; [|intros _; split; [apply b2_nil|split; [reflexivity|apply b5_nil]]].
        unfold Inv. split; [exact HR|]. split; [exact Hdev|].
        rewrite <- (upd_same (r_v r) arg v Hv). apply (R3_upd2 _ _ _ _ t); [exact H3|exact Ht|].
        apply rel_live; cbn [m_size v_size v_live m_fin m_ok m_data]; rewrite ?app_nil_r; auto.
      * (* surplus data *)
        destruct (tact_abandon k HS Hbase _ _ _ Ht Hact) as (s' & t' & Hs & HT & Ed & Est).
        pose proof HT as (_ & _ & T3 & T4 & _).
        rewrite Hs. unfold finish. intros H; injection H as <- <- <-.
        refine (leaf k r dev ws arg t m s' [] t' _ _ starts HI Ht Hsz HT _).
        apply rel_dead; cbn [m_size v_size v_live m_fin m_ok]; try reflexivity; congruence.
    + destruct (v_size v - v_fed v <? length (dec_bytes (sx_nth ev 2))) eqn:Hbig.
      * (* more than the declared size *)
        destruct (tact_abandon k HS Hbase _ _ _ Ht Hact) as (s' & t' & Hs & HT & Ed & Est).
        pose proof HT as (_ & _ & T3 & T4 & _).
        rewrite Hs. unfold finish. intros H; injection H as <- <- <-.
        refine (leaf k r dev ws arg t m s' [] t' _ _ starts HI Ht Hsz HT _).
        apply rel_dead; cbn [m_size v_size v_live m_fin m_ok]; try reflexivity; congruence.
      * apply Nat.eqb_neq in Hfs. apply Nat.ltb_ge in Hbig.
        assert (Hp0 : v_pending v = None).
        { destruct (v_pending v) eqn:Hp; [|reflexivity]. exfalso. apply Hfs. apply Hpend. discriminate. }
        assert (Hd0 : m_data m = t_data t) by (rewrite Hdata; unfold pend; rewrite Hp0; apply app_nil_r).
        destruct (v_fed v + length (dec_bytes (sx_nth ev 2)) =? v_size v) eqn:Hlast.
        -- (* the chunk completing the declared size: withheld *)
           apply Nat.eqb_eq in Hlast.
           intros H; injection H as <- <- <-.
           split; [|intros _; split; [apply b2_nil|split; [reflexivity|apply b5_nil]]].
           unfold Inv. cbn [r_st r_v]. split; [exact HR|]. split; [exact Hdev|].
           apply (R3_upd2 _ _ _ _ t); [exact H3|exact Ht|].
           apply rel_live; cbn [m_size v_size v_live m_fin m_ok m_data v_fed v_pending]; auto.
           ++ unfold pend. cbn [v_pending]. rewrite Hd0. reflexivity.
           ++ rewrite app_length. lia.
        -- (* an ordinary chunk: Write *)
           apply Nat.eqb_neq in Hlast.
           destruct (tact_write k HS Hbase (r_st r) arg t (dec_bytes (sx_nth ev 2)) Ht Hact)
             as (s' & l1 & t' & Hs & HT & Ed & Est).
           { rewrite <- Hd0, <- Hvs. lia. }
           pose proof HT as (_ & _ & T3 & T4 & _).
           rewrite Hs. intros H; injection H as <- <- <-.
           refine (leaf k r dev ws arg t m s' l1 t' _ _ starts HI Ht Hsz HT _).
           apply rel_live; cbn [m_size v_size v_live m_fin m_ok m_data v_fed v_pending]; try reflexivity; try congruence.
           ++ unfold pend. cbn [v_pending]. rewrite app_nil_r, Ed, Hd0. reflexivity.
           ++ rewrite app_length. lia.
           ++ lia.
  - (* 2: EOF *)
    destruct (v_fed v =? v_size v) eqn:Hfs.
    + apply Nat.eqb_eq in Hfs. destruct (v_pending v) as [ch|] eqn:Hp.
      * (* the withheld chunk, then flush *)
        unfold pend in Hdata. rewrite Hp in Hdata.
        destruct (tact_write k HS Hbase (r_st r) arg t ch Ht Hact) as (s1 & l1 & t1 & Hs1 & HT1 & Ed1 & Est1).
        { rewrite <- app_length, <- Hdata, <- Hfed, Hfs, Hvs. lia. }
        pose proof HT1 as (_ & T12 & T13 & T14 & _).
        assert (Ht1 : nth_error (st_threads s1) arg = Some t1).
        { rewrite T12. apply nth_error_upd_eq. eapply nth_error_lt; eauto. }
        destruct (tact_flush k HS Hbase s1 arg t1 Ht1 Est1) as (s2 & l2 & t2 & Hs2 & HT2 & Ed2 & Est2).
        { rewrite Ed1, T14, <- Hdata, <- Hfed. congruence. }
        pose proof (tact_trans k _ _ _ _ _ _ _ _ _ HT1 HT2) as HT.
        pose proof HT as (_ & _ & T3 & T4 & _).
        cbn [app]. rewrite (steps_skip_2 (k_cfg k) _ _ _ _ _ _ _ Hs1 Hs2). unfold finish.
        intros H; injection H as <- <- <-.
        refine (leaf k r dev ws arg t m s2 (l1 ++ l2) t2 _ _ starts HI Ht Hsz HT _).
        apply rel_flushed; cbn [m_size v_size v_live m_fin m_ok m_data]; try reflexivity; try congruence.
      * unfold pend in Hdata. rewrite Hp, app_nil_r in Hdata.
        destruct (tact_flush k HS Hbase (r_st r) arg t Ht Hact) as (s2 & l2 & t2 & Hs2 & HT & Ed2 & Est2).
        { rewrite <- Hdata, <- Hfed. congruence. }
        pose proof HT as (_ & _ & T3 & T4 & _).
        cbn [app]. rewrite (steps_skip_1 (k_cfg k) _ _ _ _ Hs2). unfold finish.
        intros H; injection H as <- <- <-.
        refine (leaf k r dev ws arg t m s2 l2 t2 _ _ starts HI Ht Hsz HT _).
        apply rel_flushed; cbn [m_size v_size v_live m_fin m_ok m_data]; try reflexivity; try congruence.
    + (* premature EOF *)
      destruct (tact_abandon k HS Hbase _ _ _ Ht Hact) as (s' & t' & Hs & HT & Ed & Est).
      pose proof HT as (_ & _ & T3 & T4 & _).
      rewrite Hs. unfold finish. intros H; injection H as <- <- <-.
      refine (leaf k r dev ws arg t m s' [] t' _ _ starts HI Ht Hsz HT _).
      apply rel_dead; cbn [m_size v_size v_live m_fin m_ok]; try reflexivity; congruence.
  - (* 3: the source fails *)
    destruct (tact_abandon k HS Hbase _ _ _ Ht Hact) as (s' & t' & Hs & HT & Ed & Est).
    pose proof HT as (_ & _ & T3 & T4 & _).
    rewrite Hs. unfold finish. intros H; injection H as <- <- <-.
    refine (leaf k r dev ws arg t m s' [] t' _ _ starts HI Ht Hsz HT _).
    apply rel_dead; cbn [m_size v_size v_live m_fin m_ok]; try reflexivity; congruence.
  - (* 4: HasSpace only *) noop HI.
  - (* other kinds *) noop HI.
Qed.

Lemma mon_steps_model evs : forall r r2 out dev ws starts,
  Inv k r dev ws -> exec_all c r evs = (r2, out) -> compat starts (r_st r2) ->
  exists ws2, mon_steps k starts evs out (dev, ws, []) = (st_dev (r_st r2), ws2, []) /\
              Inv k r2 (st_dev (r_st r2)) ws2.
Proof.
  induction evs as [|ev evs IH]; intros r r2 out dev ws starts HI He Hc; cbn [exec_all] in He.
  - injection He as <- <-. exists ws. destruct HI as (HR & -> & H3).
    split; [reflexivity|]. unfold Inv. auto.
  - destruct (exec c r ev) as [[r1 res] l] eqn:H1. destruct (exec_all c r1 evs) as [r2' out'] eqn:H2.
    injection He as <- <-. cbn [mon_steps]. rewrite mon_step_eq.
    destruct (exec_mon _ _ _ _ _ _ _ starts HI H1) as [HI1 Hcl].
    assert (Hc1 : compat starts (r_st r1)) by (eapply compat_ext; [eapply exec_all_ext; eauto|exact Hc]).
    destruct (Hcl Hc1) as (C2 & C3 & C5). rewrite C2, C3, C5.
    rewrite (holds_ok k HS Hbase _ _ _ _ HI1 Hc1). cbn [app]. eapply IH; eauto.
Qed.

Lemma chain_end_ge ts : forall a, a <= chain_end a ts.
Proof. induction ts as [|t ts IH]; intros a; cbn [chain_end]; [lia|]. specialize (IH (a + t_size t)). lia. Qed.

Lemma allocs_ok_chained ts : forall ws lo lo' hi,
  lo' <= lo -> chained lo ts -> (ts <> [] -> chain_end lo ts <= hi) ->
  (forall j t m, nth_error ts j = Some t -> nth_error ws j = Some m -> m_size m = t_size t) ->
  allocs_ok lo' hi (map t_start ts) ws = true.
Proof.
  induction ts as [|t ts IH]; intros ws lo lo' hi Hlo Hch Hend Hsz; cbn [map allocs_ok]; [reflexivity|].
  destruct ws as [|m ws]; [reflexivity|]. cbn [chained] in Hch. destruct Hch as [E Hch].
  pose proof (Hsz 0 t m eq_refl eq_refl) as Em.
  assert (Hend' : chain_end (lo + t_size t) ts <= hi) by (apply Hend; discriminate).
  pose proof (chain_end_ge ts (lo + t_size t)) as Hge.
  rewrite Em, E. apply andb_true_intro; split; [apply andb_true_intro; split; apply Nat.leb_le; lia|].
  apply (IH ws (lo + t_size t)); [lia|exact Hch|intros _; exact Hend'|].
  intros j t1 m1 H1 H2. apply (Hsz (S j)); assumption.
Qed.

Lemma allocs_model r dev ws lo' :
  Inv k r dev ws -> lo' <= cpos c (init_cursor k) ->
  allocs_ok lo' (c_spb c * c_sector c) (map t_start (st_threads (r_st r))) ws = true.
Proof.
  intros ([tr Hrun] & _ & (L1 & L2 & H3)) Hlo.
  pose proof (run_ainv c _ _ tr _ HS (init_cursor_wf k) Hrun) as (_ & Hch & Hend & Hin).
  apply (allocs_ok_chained _ _ (cpos c (init_cursor k))); [exact Hlo|exact Hch| |].
  - intros Hne. rewrite Hend. auto.
  - intros j t m Ht Hm. pose proof (nth_error_lt _ _ _ Ht) as Hl.
    destruct (nth_error_ex (r_v r) j ltac:(lia)) as [v Hv].
    destruct (H3 _ _ _ _ Ht Hv Hm) as (E & _). exact E.
Qed.
End Mon.

(** the harness accepts sector sizes 1..64 only (c01s.Exec); nothing else is needed *)
Definition dom01S (inp : sx) : bool := 1 <=? sx_nat (sx_nth inp 0).

Section Final.
Variable inp : sx.
Hypothesis Hdom : dom01S inp = true.
Let k := dec_cfg inp.
Let r0 := {| r_st := init_state (init_dev k) (init_cursor k); r_v := [] |}.

Lemma dom_sector : 1 <= c_sector (k_cfg k).
Proof. apply Nat.leb_le. exact Hdom. Qed.

Lemma dom_base : c_base (k_cfg k) = c_spb (k_cfg k).
Proof. reflexivity. Qed.

Lemma inv_init : Inv k r0 (init_dev k) [].
Proof.
  unfold Inv. split; [apply reach_init|]. split; [reflexivity|].
  unfold R3. cbn. split; [reflexivity|]. split; [reflexivity|].
  intros j t v m H. destruct j; discriminate.
Qed.

Lemma model_walk r out : exec_all (k_cfg k) r0 (k_events k) = (r, out) ->
  exists ws, mon_steps k (map t_start (st_threads (r_st r))) (k_events k) out (init_dev k, [], []) =
             (st_dev (r_st r), ws, []) /\ Inv k r (st_dev (r_st r)) ws /\
             compat (map t_start (st_threads (r_st r))) (r_st r).
Proof.
  intros He.
  assert (Hc : compat (map t_start (st_threads (r_st r))) (r_st r)).
  { intros j t Hj. apply nth_map_nth_error. exact Hj. }
  destruct (mon_steps_model k dom_sector dom_base _ _ _ _ _ _ _ inv_init He Hc) as (ws & E & HI).
  exists ws. auto.
Qed.

(** clause 1..5, each on the whole run *)
Definition fires (z : Z) : Prop := In z (mon01S inp (run01S inp)).

Lemma mon01S_model_eq r out : exec_all (k_cfg k) r0 (k_events k) = (r, out) ->
  exists ws, Inv k r (st_dev (r_st r)) ws /\
    compat (map t_start (st_threads (r_st r))) (r_st r) /\
    mon01S inp (run01S inp) =
    (let c := k_cfg k in
     let starts := map t_start (st_threads (r_st r)) in
     let bad1 := if holds c starts (st_dev (r_st r)) ws then [] else [1%Z] in
     let lo := match k_restored k with Some r => r | None => 0 end in
     let bad4 := if allocs_ok 0 (c_spb c * c_sector c) starts ws then [] else [4%Z] in
     let bad5 := if allocs_ok lo (c_spb c * c_sector c) starts ws then [] else
                   match bad4 with [] => [5%Z] | _ => [] end in
     dedup ([] ++ bad1 ++ bad4 ++ bad5)).
Proof.
  intros He. destruct (model_walk _ _ He) as (ws & E & HI & Hc). exists ws.
  split; [exact HI|]. split; [exact Hc|].
  unfold run01S. fold k. fold r0. rewrite He.
  unfold mon01S. fold k.
  change (sx_nth (L [L out; enc_bytes (st_dev (r_st r)); of_nats (map t_start (st_threads (r_st r)))]) 2)
    with (of_nats (map t_start (st_threads (r_st r)))).
  change (sx_nth (L [L out; enc_bytes (st_dev (r_st r)); of_nats (map t_start (st_threads (r_st r)))]) 1)
    with (enc_bytes (st_dev (r_st r))).
  change (sx_list (sx_nth (L [L out; enc_bytes (st_dev (r_st r)); of_nats (map t_start (st_threads (r_st r)))]) 0))
    with out.
  rewrite SxFactsMA.sx_nats_of_nats, dec_enc_bytes. cbv beta iota zeta. rewrite E. reflexivity.
Qed.
End Final.

Theorem mon01S_silent_on_model_proof : forall inp, dom01S inp = true -> mon01S inp (run01S inp) = [].
Proof.
  intros inp Hdom. set (k := dec_cfg inp).
  destruct (exec_all (k_cfg k) {| r_st := init_state (init_dev k) (init_cursor k); r_v := [] |} (k_events k))
    as [r out] eqn:He.
  destruct (mon01S_model_eq inp Hdom r out He) as (ws & HI & Hc & ->).
  pose proof (dom_sector inp Hdom) as HS. pose proof (dom_base inp) as Hbase. fold k in HS, Hbase, HI, Hc |- *.
  cbv zeta.
  rewrite (holds_ok k HS Hbase _ _ _ _ HI Hc).
  rewrite (allocs_model k HS Hbase r _ ws 0 HI (Nat.le_0_l _)).
  rewrite (allocs_model k HS Hbase r _ ws _ HI).
  - reflexivity.
  - destruct (k_restored k) as [r1|] eqn:Hr; [|lia]. apply (init_cursor_restored k HS Hbase). exact Hr.
Qed.

(** clause by clause.  Where the content is: clause 1 — [holds_ok] (after every step, from
    [completed_writer_data_on_device] and [flushed_writer_has_all_bytes] via
    [reach_flushed_slice]) ; clauses 2, 3 and the device-write half of 5 — [leaf] / [exec_mon]
    (from [writer_writes_only_own_sectors], [allocations_disjoint], [new_block_at_pos] via
    [reach_step_span]); clause 4 and the allocation half of 5 — [allocs_model] (from the
    allocator invariant [ainv]). *)
Corollary clause_silent_on_model : forall inp z, dom01S inp = true -> ~ In z (mon01S inp (run01S inp)).
Proof. intros inp z Hd. rewrite (mon01S_silent_on_model_proof inp Hd). intros []. Qed.

Corollary clause1_silent_on_model : forall inp, dom01S inp = true -> ~ In 1%Z (mon01S inp (run01S inp)).
Proof. intros inp. apply clause_silent_on_model. Qed.
Corollary clause2_silent_on_model : forall inp, dom01S inp = true -> ~ In 2%Z (mon01S inp (run01S inp)).
Proof. intros inp. apply clause_silent_on_model. Qed.
Corollary clause3_silent_on_model : forall inp, dom01S inp = true -> ~ In 3%Z (mon01S inp (run01S inp)).
Proof. intros inp. apply clause_silent_on_model. Qed.
Corollary clause4_silent_on_model : forall inp, dom01S inp = true -> ~ In 4%Z (mon01S inp (run01S inp)).
Proof. intros inp. apply clause_silent_on_model. Qed.
Corollary clause5_silent_on_model : forall inp, dom01S inp = true -> ~ In 5%Z (mon01S inp (run01S inp)).
Proof. intros inp. apply clause_silent_on_model. Qed.

Module Ex.
Open Scope Z_scope.
Definition al n := L [A 0; A n].
Definition qy n := L [A 4; A n].
Definition chk j b := L [A 1; A j; of_Zs b].
Definition eof j := L [A 2; A j].
Definition fail j := L [A 3; A j].
Definition inp s spb r f evs := L [A s; A spb; A r; A f; L evs].

(** sector 4, block of 3 sectors restored at offset 1 (rounds up to 4): three writers in flight
    at the same time; writers 0 and 1 share a sector and both complete (out of allocation
    order, writer 1's last chunk is withheld until EOF), writer 2 gets surplus data and is
    abandoned; then events on dead and unknown writers, an empty chunk, a size-0 writer,
    a too large allocation, an unknown event kind *)
Definition good : sx :=
  inp 4 3 1 9 [al 3; al 3; al 2; chk 1 [4;5]; chk 0 [1;2;3]; chk 1 []; chk 1 [6]; chk 2 [7;8]; chk 2 [9];
               eof 1; eof 0; eof 0; fail 2; chk 7 [1]; al 0; eof 3; qy 1; al 9; L [A 7; A 0]].
End Ex.

Example dom01S_example :
  dom01S Ex.good = true /\ mon01S Ex.good (run01S Ex.good) = [] /\
  sx_nth (run01S Ex.good) 1 = of_Zs ([9;9;9;9;9;9;9;9;9;9;9;9] ++ [9;9;9;9;1;2;3;4;5;6;0;0] ++ [9;9;9;9;9;9;9;9;9;9;9;9])%Z.
Proof. vm_compute. repeat split. Qed.

(** sector size 0 is outside the domain (the harness rejects it; the Go code would divide by
    zero): there clause 5 does fire on the model's run, so the hypothesis cannot be dropped *)
Example dom01S_needed :
  let bad := Ex.inp 0 2 3 7 [Ex.al 0] in
  dom01S bad = false /\ mon01S bad (run01S bad) = [5%Z].
Proof. vm_compute. split; reflexivity. Qed.
